(* C17FswProofs.v — the executable payload (ops run through the C13 model of
   bits.FixedSliceWriter, then FlushBits, cut at the capacity) equals the bit-list form the
   typed theorems are stated on: fsw_bytes = spec_bytes. *)
From V.lib Require Import Base.
From V.c13 Require Import C13Model C13Bits C13WriterProofs.
From V.c17 Require Import C17TypedModel C17SizeModel C17BitProofs C17TypedProofs.

Definition fsw_op_ok (o : wop) : bool :=
  match o with
  | WBits _ w => w <=? 56
  | WFlag _ => true
  | _ => false
  end.

Definition PStream (s : wstate) (cur : list bool) : Prop :=
  exists raw, WInv false s raw /\ bytes_to_bits raw ++ pending s = cur.

Lemma pstream_step s cur o :
  fsw_op_ok o = true -> PStream s cur -> PStream (wstep_plain s o) (cur ++ C17TypedModel.op_bits o).
Proof.
  intros Hok [raw [HI Hc]].
  destruct o as [v w|b|v|k|v| | |]; try discriminate; cbn [wstep_plain C17TypedModel.op_bits].
  - apply N.leb_le in Hok.
    destruct (write_gen_spec false s raw v w HI Hok) as [raw' [HI' [Hs _]]].
    exists raw'. split; [exact HI'|]. unfold write_plain. rewrite Hs, <- Hc, <- app_assoc. reflexivity.
  - destruct (write_gen_spec false s raw (if b then 1 else 0) 1 HI ltac:(lia)) as [raw' [HI' [Hs _]]].
    exists raw'. split; [exact HI'|]. unfold write_plain. rewrite Hs, <- Hc, <- app_assoc.
    destruct b; reflexivity.
Qed.

Lemma pstream_fold ops : forall s cur,
  forallb fsw_op_ok ops = true -> PStream s cur ->
  PStream (fold_left wstep_plain ops s) (cur ++ ops_bits ops).
Proof.
  induction ops as [|o t IH]; intros s cur Hok H.
  - cbn [fold_left ops_bits flat_map]. rewrite app_nil_r. exact H.
  - cbn [forallb] in Hok. apply andb_true_iff in Hok. destruct Hok as [Ho Ht].
    cbn [fold_left]. rewrite ops_bits_cons, app_assoc. apply IH; [exact Ht|].
    apply pstream_step; assumption.
Qed.

Lemma pack8_bytes raw : forall rest,
  Forall (fun b => b < 256) raw -> pack8 (length raw) (bytes_to_bits raw ++ rest) = raw.
Proof.
  induction raw as [|b t IH]; intros rest H; [reflexivity|].
  inversion H as [|? ? Hb Ht]; subst.
  cbn [length pack8]. unfold bytes_to_bits. cbn [flat_map]. rewrite <- app_assoc.
  rewrite firstn_app_len, skipn_app_len by apply bits_of_length.
  rewrite val_of_bits_of. rewrite N.mod_small by exact Hb. f_equal. apply IH. exact Ht.
Qed.

Lemma pack_bytes raw : Forall (fun b => b < 256) raw -> pack (bytes_to_bits raw) = raw.
Proof.
  intros H. unfold pack. rewrite bytes_to_bits_length.
  rewrite Nat.mul_comm, Nat.div_mul by lia.
  rewrite <- (app_nil_r (bytes_to_bits raw)). apply pack8_bytes. exact H.
Qed.

Lemma bits_of_zero n : bits_of n 0 = repeat false n.
Proof. induction n as [|n IH]; [reflexivity|]. cbn [bits_of repeat]. rewrite N.bits_0, IH. reflexivity. Qed.

Lemma flush_byte_bits k v :
  (1 <= k <= 7)%nat ->
  bits_of 8 (N.land (N.shiftl v (8 - N.of_nat k)) 255) = bits_of k v ++ repeat false (8 - k).
Proof.
  intros Hk. replace 8%nat with (k + (8 - k))%nat at 1 by lia.
  rewrite <- bits_of_zero. apply bits_of_app_ext.
  - intros i Hi. rewrite N.land_spec, N.bits_0, N.shiftl_spec_low by lia. reflexivity.
  - intros i Hi. rewrite N.land_spec. change 255 with (N.ones 8).
    rewrite N.ones_spec_low by lia. rewrite andb_true_r.
    rewrite N.shiftl_spec_high by lia. f_equal. lia.
Qed.

Lemma pstream_flush s cur :
  PStream s cur -> wout (flush_plain s) = pack (pad8 cur).
Proof.
  intros [raw [[Hn [Hlt Hrev]] Hc]]. cbv iota in Hrev. unfold flush_plain, pad8. subst cur.
  rewrite app_length, bytes_to_bits_length. unfold pending. rewrite bits_of_length.
  replace ((8 * length raw + N.to_nat (wn s)) mod 8)%nat with (N.to_nat (wn s)).
  2:{ rewrite Nat.add_comm, Nat.mul_comm, Nat.mod_add by lia. rewrite Nat.mod_small; lia. }
  destruct (N.eqb_spec (wn s) 0) as [E|E].
  - rewrite E. cbn [N.to_nat bits_of Nat.sub Nat.modulo repeat]. change ((8 - 0) mod 8)%nat with 0%nat.
    cbn [repeat]. rewrite !app_nil_r. unfold wout. rewrite Hrev, rev_involutive.
    symmetry. apply pack_bytes. exact Hlt.
  - unfold wout. cbn [wrev]. rewrite Hrev. cbn [rev]. rewrite rev_involutive.
    rewrite Nat.mod_small by lia.
    set (k := N.to_nat (wn s)).
    replace (8 - wn s) with (8 - N.of_nat k) by (unfold k; lia).
    rewrite <- app_assoc, <- flush_byte_bits by (unfold k; lia).
    change (bits_of 8 ?b) with (bytes_to_bits [b]) at 1.
    rewrite <- bytes_to_bits_app. symmetry. apply pack_bytes.
    apply Forall_app. split; [exact Hlt|]. constructor; [|constructor].
    change 255 with (N.ones 8). rewrite N.land_ones. apply N.mod_lt. discriminate.
Qed.

Lemma fsw_is_spec cap ops :
  forallb fsw_op_ok ops = true -> fsw_bytes cap ops = spec_bytes cap ops.
Proof.
  intros Hok. unfold fsw_bytes, spec_bytes, run_writer_plain.
  rewrite fold_left_app. cbn [fold_left wstep_plain]. f_equal.
  apply pstream_flush.
  pose proof (pstream_fold ops winit [] Hok) as H. cbn [app] in H. apply H.
  exists []. split; [apply WInv_init|reflexivity].
Qed.

(* the op lists of the typed messages are within the writer's domain *)
Lemma hms_ops_ok full sf s mf m hf h : forallb fsw_op_ok (hms_ops full sf s mf m hf h) = true.
Proof. unfold hms_ops. destruct full, sf, mf, hf; reflexivity. Qed.

Lemma clock_ops_ok c : c_tolen c <= 56 -> forallb fsw_op_ok (clock_ops c) = true.
Proof.
  intros H. unfold clock_ops. destruct (c_flag c); [|reflexivity].
  cbn [forallb fsw_op_ok andb]. rewrite !forallb_app, hms_ops_ok.
  cbn [forallb fsw_op_ok andb app]. destruct (0 <? c_tolen c); cbn [forallb fsw_op_ok];
    rewrite ?andb_true_r; apply N.leb_le; exact H || lia.
Qed.

Lemma clocks_ops_ok cs : tc_widths_ok cs = true -> forallb fsw_op_ok (flat_map clock_ops cs) = true.
Proof.
  unfold tc_widths_ok. induction cs as [|c t IH]; intros H; [reflexivity|].
  cbn [forallb] in H. apply andb_true_iff in H. destruct H as [Hc Ht].
  cbn [flat_map]. rewrite forallb_app, (IH Ht), andb_true_r. apply clock_ops_ok. lia.
Qed.

Lemma tc_ops_ok cs : tc_widths_ok cs = true -> forallb fsw_op_ok (tc_ops cs) = true.
Proof.
  intros H. unfold tc_ops. cbn [forallb fsw_op_ok andb]. now rewrite forallb_app, (clocks_ops_ok cs H).
Qed.

Lemma timecode_payload_is_spec cs : tc_widths_ok cs = true -> tc_payload cs = tc_payload_spec cs.
Proof. intros H. apply fsw_is_spec, tc_ops_ok, H. Qed.

Lemma clock_avc_ops_ok c : a_tolen c <= 56 -> forallb fsw_op_ok (clock_avc_ops c) = true.
Proof.
  intros H. unfold clock_avc_ops. destruct (a_flag c); [|reflexivity].
  cbn [forallb fsw_op_ok andb]. rewrite !forallb_app, hms_ops_ok.
  cbn [forallb fsw_op_ok andb app]. destruct (0 <? a_tolen c); cbn [forallb fsw_op_ok];
    rewrite ?andb_true_r; try reflexivity; apply N.leb_le; exact H.
Qed.

Lemma clocks_avc_ops_ok cs :
  forallb (fun c => a_tolen c <=? 56) cs = true -> forallb fsw_op_ok (flat_map clock_avc_ops cs) = true.
Proof.
  induction cs as [|c t IH]; intros H; [reflexivity|].
  cbn [forallb] in H. apply andb_true_iff in H. destruct H as [Hc Ht].
  cbn [flat_map]. rewrite forallb_app, (IH Ht), andb_true_r. apply clock_avc_ops_ok. lia.
Qed.

Lemma pt_ops_ok m : pt_widths_ok m = true -> forallb fsw_op_ok (pt_ops m) = true.
Proof.
  unfold pt_widths_ok, pt_ops. intros H. apply andb_true_iff in H. destruct H as [Hh Hcs].
  rewrite forallb_app. cbn [forallb fsw_op_ok andb]. rewrite (clocks_avc_ops_ok _ Hcs), andb_true_r.
  destruct (p_hrd m) as [h|]; [|reflexivity]. cbn [forallb fsw_op_ok]. lia.
Qed.

Lemma pic_timing_payload_is_spec m : pt_widths_ok m = true -> pt_payload m = pt_payload_spec m.
Proof. intros H. apply fsw_is_spec, pt_ops_ok, H. Qed.

(* canonical values are within the writer's domain: their widths are coded in 5 bits *)
Lemma tc_canonical_widths cs : tc_canonical cs = true -> tc_widths_ok cs = true.
Proof.
  intros H. destruct (tc_canonical_inv cs H) as [_ Hc]. unfold tc_widths_ok.
  apply forallb_forall. intros c Hin. rewrite forallb_forall in Hc. specialize (Hc c Hin).
  unfold clock_canonical in Hc. destruct (c_flag c); split_hyps; lia.
Qed.

Lemma pt_canonical_widths m : pt_canonical m = true -> pt_widths_ok m = true.
Proof.
  intros H. destruct (pt_canonical_inv m H) as (Hh & Htol & _ & Hcs). unfold pt_widths_ok.
  apply andb_true_iff. split.
  - destruct (p_hrd m) as [h|]; [|reflexivity]. destruct (hrd_canonical_inv h Hh) as (H1 & H2 & _). lia.
  - apply forallb_forall. intros c Hin. rewrite forallb_forall in Hcs. specialize (Hcs c Hin).
    unfold clock_avc_canonical in Hcs. apply andb_true_iff in Hcs. lia.
Qed.

Lemma timecode_exec cs :
  tc_canonical cs = true ->
  tc_payload cs = tc_payload_spec cs /\
  tc_decode (tc_payload cs) = Ok cs /\ lenN (tc_payload cs) = tc_size cs.
Proof.
  intros H. pose proof (timecode_payload_is_spec cs (tc_canonical_widths cs H)) as E. rewrite E.
  split; [reflexivity|]. apply timecode_roundtrip. exact H.
Qed.

Lemma pic_timing_exec m :
  pt_canonical m = true ->
  pt_payload m = pt_payload_spec m /\
  pt_decode (p_hrd m) (p_tolen m) (pt_payload m) = Ok m /\ lenN (pt_payload m) = pt_size m.
Proof.
  intros H. pose proof (pic_timing_payload_is_spec m (pt_canonical_widths m H)) as E. rewrite E.
  split; [reflexivity|]. apply pic_timing_roundtrip. exact H.
Qed.
