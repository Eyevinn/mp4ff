(* C17RbspProofs.v — the round trip on the rbsp (plain byte list) level:
   extract_rbsp (ser msgs ++ [0x80]) = the (type, payload) list, for every non-empty list. *)
From V.lib Require Import Base.
From V.c17 Require Import C17Spec.

Lemma ff_enc_lt v : v < 255 -> ff_enc v = [v].
Proof.
  intros H. unfold ff_enc. rewrite N.div_small, N.mod_small by exact H. reflexivity.
Qed.

(* one 0xFF byte stands for 255 *)
Lemma div255_step v : 255 <= v -> v / 255 = N.succ ((v - 255) / 255) /\ v mod 255 = (v - 255) mod 255.
Proof.
  intros H. replace v with ((v - 255) + 1 * 255) at 1 3 by lia.
  rewrite N.div_add, N.mod_add by lia. lia.
Qed.

Lemma ff_enc_ge v : 255 <= v -> ff_enc v = 255 :: ff_enc (v - 255).
Proof.
  intros H. unfold ff_enc. destruct (div255_step v H) as [-> ->]. now rewrite N2Nat.inj_succ.
Qed.

Lemma ff_enc_nonempty v : ff_enc v <> [].
Proof. unfold ff_enc. destruct (repeat 255 (N.to_nat (v / 255))); discriminate. Qed.

Lemma ff_enc_bytes_ok v : bytes_ok (ff_enc v) = true.
Proof.
  unfold ff_enc. rewrite bytes_ok_app. apply andb_true_iff. split.
  - unfold bytes_ok. apply forallb_forall. intros x Hx. apply repeat_spec in Hx. subst x. reflexivity.
  - cbn [bytes_ok forallb]. unfold byte_ok. rewrite andb_true_r. apply N.ltb_lt.
    assert (v mod 255 < 255) by (apply N.mod_lt; lia). lia.
Qed.

Section Wrap.
  Variable wrap : N -> N.
  Variable W : N.
  Hypothesis wrap_small : forall x, x < W -> wrap x = x.

  Lemma ff_dec_repeat k : forall l acc,
    acc + 255 * N.of_nat k < W ->
    ff_dec wrap (repeat 255 k ++ l) acc = ff_dec wrap l (acc + 255 * N.of_nat k).
  Proof.
    induction k as [|k IH]; intros l acc H.
    - cbn [repeat app]. f_equal. lia.
    - cbn [repeat app ff_dec]. rewrite N.eqb_refl.
      rewrite wrap_small by lia. rewrite IH by lia. f_equal. lia.
  Qed.

  (* decode inverts encode, whatever follows, as long as the value fits the accumulator *)
  Lemma ff_dec_enc v r acc :
    acc + v < W -> ff_dec wrap (ff_enc v ++ r) acc = Some (acc + v, r).
  Proof.
    intros H. unfold ff_enc. rewrite <- app_assoc.
    assert (D : v = 255 * (v / 255) + v mod 255) by (apply N.div_mod; lia).
    assert (M : v mod 255 < 255) by (apply N.mod_lt; lia).
    rewrite ff_dec_repeat by (rewrite N2Nat.id; lia).
    rewrite N2Nat.id. cbn [app ff_dec].
    destruct (N.eqb_spec (v mod 255) 255) as [E|E]; [lia|].
    rewrite wrap_small by lia. f_equal. f_equal. lia.
  Qed.
End Wrap.

Lemma u64_small x : x < 2 ^ 64 -> u64 x = x.
Proof. intros H. unfold u64. apply N.mod_small. exact H. Qed.
Lemma u32_small x : x < 2 ^ 32 -> u32 x = x.
Proof. intros H. unfold u32. apply N.mod_small. exact H. Qed.

Lemma msg_ok_inv m : msg_ok m = true ->
  mtype m < 2 ^ 64 /\ msize m < 2 ^ 32 /\ msize m = lenN (mpayload m) /\ bytes_ok (mpayload m) = true.
Proof.
  unfold msg_ok. intros H. apply andb_true_iff in H. destruct H as [H Hb]. repeat split; [lia..|exact Hb].
Qed.

Lemma more_trailing_only : more_rbsp [128] = Some false.
Proof. reflexivity. Qed.

Lemma existsb_nonzero_end l : existsb nonzero (l ++ [128]) = true.
Proof. rewrite existsb_app. cbn. apply orb_true_r. Qed.

(* while messages remain, the rest of the rbsp is never of the form 1 0* *)
Lemma more_nonempty l : l <> [] -> more_rbsp (l ++ [128]) = Some true.
Proof.
  destruct l as [|b t]; [congruence|]. intros _. cbn [app more_rbsp].
  destruct (b <? 128); [reflexivity|].
  rewrite existsb_nonzero_end, orb_true_r. reflexivity.
Qed.

Lemma ser_msg_nonempty m : ser_msg m <> [].
Proof.
  unfold ser_msg. intros E. apply app_eq_nil in E. destruct E as [E _].
  exact (ff_enc_nonempty _ E).
Qed.

Lemma ser_cons m ms : ser (m :: ms) = ser_msg m ++ ser ms.
Proof. reflexivity. Qed.

Lemma ser_nonempty ms : ms <> [] -> ser ms <> [].
Proof.
  destruct ms as [|m t]; [congruence|]. intros _ E. rewrite ser_cons in E.
  apply app_eq_nil in E. destruct E as [E _]. exact (ser_msg_nonempty _ E).
Qed.

Lemma firstn_lenN {A} (l r : list A) : firstn (N.to_nat (lenN l)) (l ++ r) = l.
Proof.
  unfold lenN. rewrite Nat2N.id. rewrite firstn_app, Nat.sub_diag, firstn_all. cbn [firstn].
  apply app_nil_r.
Qed.

Lemma skipn_lenN {A} (l r : list A) : skipn (N.to_nat (lenN l)) (l ++ r) = r.
Proof.
  unfold lenN. rewrite Nat2N.id. rewrite skipn_app, Nat.sub_diag, skipn_all. reflexivity.
Qed.

Lemma extract_rbsp_step f m rest :
  msg_ok m = true ->
  extract_rbsp (S f) (ser_msg m ++ rest) =
    match more_rbsp rest with
    | None => XMissing [(mtype m, mpayload m)]
    | Some false => XOk [(mtype m, mpayload m)]
    | Some true => xcons (mtype m, mpayload m) (extract_rbsp f rest)
    end.
Proof.
  intros H. destruct (msg_ok_inv m H) as (Ht & Hz & Hs & _).
  cbn [extract_rbsp]. unfold ser_msg. rewrite <- !app_assoc.
  rewrite (ff_dec_enc u64 (2 ^ 64) u64_small) by (cbn [N.add]; exact Ht).
  rewrite (ff_dec_enc u32 (2 ^ 32) u32_small) by (cbn [N.add]; exact Hz).
  cbn [N.add]. rewrite Hs.
  destruct (N.ltb_spec (lenN (mpayload m ++ rest)) (lenN (mpayload m))) as [L|L].
  - rewrite lenN_app in L. lia.
  - rewrite firstn_lenN, skipn_lenN. reflexivity.
Qed.

Lemma extract_rbsp_msgs : forall msgs f,
  msgs <> [] -> msgs_ok msgs = true -> (length msgs <= f)%nat ->
  extract_rbsp f (rbsp_of msgs) = XOk (observed msgs).
Proof.
  induction msgs as [|m ms IH]; intros f Hne Hok Hf; [congruence|].
  cbn [msgs_ok forallb] in Hok. apply andb_true_iff in Hok. destruct Hok as [Hm Hms].
  destruct f as [|f]; [cbn [length] in Hf; lia|].
  unfold rbsp_of. rewrite ser_cons, <- app_assoc.
  rewrite extract_rbsp_step by exact Hm.
  destruct ms as [|m' ms'].
  - cbn [ser flat_map app]. rewrite more_trailing_only. reflexivity.
  - rewrite more_nonempty by (apply ser_nonempty; discriminate).
    change (ser (m' :: ms') ++ [128]) with (rbsp_of (m' :: ms')).
    rewrite IH; [reflexivity|discriminate|exact Hms|cbn [length] in *; lia].
Qed.

Lemma length_ser_ge msgs : (length msgs <= length (ser msgs))%nat.
Proof.
  induction msgs as [|m ms IH]; [apply Nat.le_refl|].
  rewrite ser_cons, app_length. cbn [length].
  assert (length (ser_msg m) <> 0)%nat.
  { intros E. apply length_zero_iff_nil in E. exact (ser_msg_nonempty _ E). }
  lia.
Qed.

Lemma rbsp_roundtrip msgs :
  msgs <> [] -> msgs_ok msgs = true ->
  extract_rbsp_all (rbsp_of msgs) = XOk (observed msgs).
Proof.
  intros Hne Hok. unfold extract_rbsp_all. apply extract_rbsp_msgs; [exact Hne|exact Hok|].
  unfold rbsp_of. rewrite app_length. pose proof (length_ser_ge msgs). lia.
Qed.

(* the empty list is outside the statement: the writer emits only 80, the extractor reads it
   as a type byte and then runs out of input *)
Lemma rbsp_empty_list_rejected : extract_rbsp_all (rbsp_of []) = XErr.
Proof. reflexivity. Qed.

Lemma sei_value_rt v r :
  (v < 2 ^ 64 -> ff_dec u64 (ff_enc v ++ r) 0 = Some (v, r)) /\
  (v < 2 ^ 32 -> ff_dec u32 (ff_enc v ++ r) 0 = Some (v, r)).
Proof.
  split; intros H.
  - rewrite (ff_dec_enc u64 (2 ^ 64) u64_small) by (cbn [N.add]; exact H). reflexivity.
  - rewrite (ff_dec_enc u32 (2 ^ 32) u32_small) by (cbn [N.add]; exact H). reflexivity.
Qed.
