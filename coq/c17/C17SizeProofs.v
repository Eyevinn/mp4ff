(* C17SizeProofs.v — Size() = len(Payload()) for EVERY value of the typed messages, canonical or not
   (fields wider than their code, junk in absent fields, any number of clocks, any pict_struct, clock
   count and per-clock time-offset lengths that do not match): the writers put as many bits as
   Size() counts whatever the field VALUES are.  The only hypothesis is on the WIDTHS handed to
   bits.FixedSliceWriter.Write (<= 56, the domain of the C13 writer lemma). *)
From V.lib Require Import Base.
From V.c17 Require Import C17TypedModel C17SizeModel C17TypedProofs C17FswProofs.

Lemma tc_size_any cs :
  tc_widths_ok cs = true -> tc_payload cs = tc_payload_spec cs /\ lenN (tc_payload cs) = tc_size cs.
Proof.
  intros Hw. rewrite (timecode_payload_is_spec cs Hw). split; [reflexivity|apply tc_spec_bits].
Qed.

Lemma pt_size_any m :
  pt_widths_ok m = true -> pt_payload m = pt_payload_spec m /\ lenN (pt_payload m) = pt_size m.
Proof.
  intros Hw. rewrite (pic_timing_payload_is_spec m Hw). split; [reflexivity|apply pt_spec_bits].
Qed.

Lemma size_any_value :
  (forall cs, tc_widths_ok cs = true -> tc_payload cs = tc_payload_spec cs /\ lenN (tc_payload cs) = tc_size cs) /\
  (forall m, pt_widths_ok m = true -> pt_payload m = pt_payload_spec m /\ lenN (pt_payload m) = pt_size m) /\
  (forall m, lenN (mdcv_payload m) = mdcv_size) /\
  (forall m, lenN (cll_payload m) = cll_size).
Proof.
  split; [exact tc_size_any|]. split; [exact pt_size_any|]. split; intros m; reflexivity.
Qed.
