(* C17ComposeProofs.v — a canonical typed message, seen as what WriteSEIMessages asks of it
   (Type(), Size(), Payload()), satisfies the hypotheses of the list round trip: its Size() is
   the payload length, fits the extractor's uint32, and the payload is a byte string. *)
From V.lib Require Import Base.
From V.c13 Require Import C13Bits.
From V.c17 Require Import C17Spec C17Model C17EbspProofs C17TypedModel C17TypedProofs C17FswProofs.

Lemma pack8_bytes_ok n : forall l, bytes_ok (pack8 n l) = true.
Proof.
  induction n as [|n IH]; intros l; [reflexivity|].
  cbn [pack8]. rewrite bytes_ok_cons, IH, andb_true_r. unfold byte_ok. apply N.ltb_lt.
  pose proof (val_of_lt (firstn 8 l)) as H.
  assert (L : (length (firstn 8 l) <= 8)%nat) by (rewrite firstn_length; lia).
  assert (2 ^ N.of_nat (length (firstn 8 l)) <= 2 ^ 8) by (apply N.pow_le_mono_r; lia).
  change (2 ^ 8) with 256 in *. lia.
Qed.

Lemma bytes_ok_firstn n l : bytes_ok l = true -> bytes_ok (firstn n l) = true.
Proof.
  revert n. induction l as [|b t IH]; intros n H; [destruct n; reflexivity|].
  destruct n; [reflexivity|]. cbn [firstn]. rewrite bytes_ok_cons in *.
  apply andb_true_iff in H. destruct H as [Hb Ht]. rewrite Hb, (IH n Ht). reflexivity.
Qed.

Lemma spec_bytes_ok cap ops : bytes_ok (spec_bytes cap ops) = true.
Proof. unfold spec_bytes, pack. apply bytes_ok_firstn, pack8_bytes_ok. Qed.

Lemma hms_nrbits_le full sf mf hf : hms_nrbits full sf mf hf <= 20.
Proof. unfold hms_nrbits. destruct full, sf, mf, hf; lia. Qed.

Lemma clock_nrbits_le c : clock_canonical c = true -> clock_nrbits c <= 75.
Proof.
  unfold clock_canonical, clock_nrbits. destruct (c_flag c); [|lia]. intros H. split_hyps.
  pose proof (hms_nrbits_le (c_full c) (c_secflag c) (c_minflag c) (c_hrflag c)). lia.
Qed.

Lemma sum_clock_nrbits_le cs :
  forallb clock_canonical cs = true -> sumN (map clock_nrbits cs) <= 75 * lenN cs.
Proof.
  induction cs as [|c t IH]; intros H; [cbn; lia|].
  cbn [forallb] in H. apply andb_true_iff in H. destruct H as [Hc Ht].
  cbn [map sumN]. rewrite lenN_cons. pose proof (clock_nrbits_le c Hc). specialize (IH Ht). lia.
Qed.

(* Size() = len(Payload()), below 2^32, and the payload is a byte string *)
Lemma spec_msg_ok ty cap ops :
  lenN (spec_bytes cap ops) = cap -> cap < 2 ^ 32 -> ty < 2 ^ 64 ->
  msg_ok (mkMsg ty cap (spec_bytes cap ops)) = true.
Proof.
  intros HL Hc Ht. unfold msg_ok. cbn [mtype msize mpayload]. rewrite HL, N.eqb_refl, spec_bytes_ok. lia.
Qed.

Lemma timecode_msg_ok cs :
  tc_canonical cs = true -> msg_ok (mkMsg 136 (tc_size cs) (tc_payload cs)) = true.
Proof.
  intros H. destruct (timecode_exec cs H) as [-> [_ HL]]. apply spec_msg_ok; [exact HL| |reflexivity].
  destruct (tc_canonical_inv cs H) as [Hn Hc]. pose proof (sum_clock_nrbits_le cs Hc).
  unfold tc_size. apply N.div_lt_upper_bound; lia.
Qed.

Lemma clock_avc_nrbits_le tolen c :
  tolen < 32 -> clock_avc_canonical tolen c = true -> clock_avc_nrbits c <= 71.
Proof.
  unfold clock_avc_canonical, clock_avc_nrbits. intros Ht H.
  apply andb_true_iff in H. destruct H as [H _]. apply N.eqb_eq in H.
  destruct (a_flag c); [|lia].
  pose proof (hms_nrbits_le (a_full c) (a_secflag c) (a_minflag c) (a_hrflag c)). lia.
Qed.

Lemma sum_clock_avc_nrbits_le tolen cs :
  tolen < 32 -> forallb (clock_avc_canonical tolen) cs = true ->
  sumN (map clock_avc_nrbits cs) <= 71 * lenN cs.
Proof.
  intros Ht. induction cs as [|c t IH]; intros H; [cbn; lia|].
  cbn [forallb] in H. apply andb_true_iff in H. destruct H as [Hc Hcs].
  cbn [map sumN]. rewrite lenN_cons. pose proof (clock_avc_nrbits_le tolen c Ht Hc). specialize (IH Hcs). lia.
Qed.

Lemma pic_timing_msg_ok m :
  pt_canonical m = true -> msg_ok (mkMsg 1 (pt_size m) (pt_payload m)) = true.
Proof.
  intros H. destruct (pic_timing_exec m H) as [-> [_ HL]]. apply spec_msg_ok; [exact HL| |reflexivity].
  destruct (pt_canonical_inv m H) as (Hh & Htol & Ek & Hcs).
  destruct (num_clock_ts_inv _ _ Ek) as [_ HK]. pose proof (sum_clock_avc_nrbits_le _ _ Htol Hcs) as HS.
  unfold lenN in HS. unfold pt_size. apply N.div_lt_upper_bound; [lia|].
  destruct (p_hrd m) as [h|]; [|lia]. destruct (hrd_canonical_inv h Hh) as (H1 & H2 & _). lia.
Qed.

Lemma mod256_ok x : byte_ok (x mod 256) = true.
Proof. unfold byte_ok. apply N.ltb_lt. apply N.mod_lt. discriminate. Qed.

Lemma mdcv_msg_ok m : msg_ok (mkMsg 137 mdcv_size (mdcv_payload m)) = true.
Proof.
  unfold msg_ok, mdcv_payload, be16, be32. cbn [mtype msize mpayload app bytes_ok forallb].
  rewrite !mod256_ok. reflexivity.
Qed.

Lemma cll_msg_ok m : msg_ok (mkMsg 144 cll_size (cll_payload m)) = true.
Proof.
  unfold msg_ok, cll_payload, be16. cbn [mtype msize mpayload app bytes_ok forallb].
  rewrite !mod256_ok. reflexivity.
Qed.

Lemma typed_msgs_ok :
  (forall cs, tc_canonical cs = true -> msg_ok (mkMsg 136 (tc_size cs) (tc_payload cs)) = true) /\
  (forall m, pt_canonical m = true -> msg_ok (mkMsg 1 (pt_size m) (pt_payload m)) = true) /\
  (forall m, msg_ok (mkMsg 137 mdcv_size (mdcv_payload m)) = true) /\
  (forall m, msg_ok (mkMsg 144 cll_size (cll_payload m)) = true).
Proof.
  split; [exact timecode_msg_ok|]. split; [exact pic_timing_msg_ok|].
  split; [exact mdcv_msg_ok|exact cll_msg_ok].
Qed.

(* a canonical time code between arbitrary other messages of an SEI NAL unit: written, extracted
   and decoded, it comes back unchanged *)
Lemma timecode_in_nalu cs pre post :
  tc_canonical cs = true -> msgs_ok pre = true -> msgs_ok post = true ->
  extract_sei_data (write_sei_messages (pre ++ mkMsg 136 (tc_size cs) (tc_payload cs) :: post))
  = XOk (observed pre ++ (136, tc_payload cs) :: observed post)
  /\ tc_decode (tc_payload cs) = Ok cs.
Proof.
  intros H Hpre Hpost. split; [|apply (timecode_exec cs H)].
  rewrite list_roundtrip_ebsp.
  - unfold observed. rewrite map_app. reflexivity.
  - intros E. apply app_eq_nil in E. destruct E as [_ E]. discriminate.
  - unfold msgs_ok. rewrite forallb_app. cbn [forallb].
    fold (msgs_ok pre). fold (msgs_ok post). rewrite Hpre, Hpost, (timecode_msg_ok cs H). reflexivity.
Qed.
