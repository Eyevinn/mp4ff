(* C17TypedProofs.v — decode (payload m) = m and |payload m| = size m for the typed messages
   (on the bit-list form `spec_bytes` of the FixedSliceWriter output). *)
From V.lib Require Import Base.
From V.c13 Require Import C13Model C13Bits.
From V.c17 Require Import C17TypedModel C17BitProofs.

Ltac split_hyps :=
  repeat match goal with
  | H : _ && _ = true |- _ => apply andb_true_iff in H; destruct H
  | H : negb _ = true |- _ => apply negb_true_iff in H
  | H : (_ =? _) = true |- _ => apply N.eqb_eq in H
  | H : (_ <? _) = true |- _ => apply N.ltb_lt in H
  | H : (_ =? _)%Z = true |- _ => apply Z.eqb_eq in H
  end.

(* one decoding step: the next coded item is at the head of the bit list *)
Ltac rd_step :=
  first
  [ rewrite rd_flag_cons
  | rewrite (rd_bits 2 _ 4) by (try reflexivity; assumption)
  | rewrite (rd_bits 4 _ 16) by (try reflexivity; assumption)
  | rewrite (rd_bits 5 _ 32) by (try reflexivity; assumption)
  | rewrite (rd_bits 6 _ 64) by (try reflexivity; assumption)
  | rewrite (rd_bits 8 _ 256) by (try reflexivity; assumption)
  | rewrite (rd_bits 9 _ 512) by (try reflexivity; assumption) ];
  cbn [rbind].

Ltac norm_bits :=
  cbn [ops_bits flat_map op_bits];
  repeat first [ rewrite <- app_assoc | rewrite app_nil_r | progress cbn [app] ].

Lemma tc_canonical_inv cs : tc_canonical cs = true -> lenN cs < 4 /\ forallb clock_canonical cs = true.
Proof. unfold tc_canonical. intros H. apply andb_true_iff in H. destruct H as [Hn Hc]. split; [lia|exact Hc]. Qed.

Lemma num_clock_ts_inv pict k : num_clock_ts pict = Some k -> pict < 16 /\ (1 <= k <= 3)%nat.
Proof.
  unfold num_clock_ts. destruct (N.leb_spec pict 2); [intros [= <-]; lia|].
  destruct (N.leb_spec pict 4); [intros [= <-]; lia|]. destruct (N.leb_spec pict 8); [intros [= <-]; lia|discriminate].
Qed.

Lemma hrd_canonical_inv h : hrd_canonical h = true ->
  h_cpb_len1 h < 32 /\ h_dpb_len1 h < 32 /\
  h_cpb_delay h < 2 ^ (h_cpb_len1 h + 1) /\ h_dpb_delay h < 2 ^ (h_dpb_len1 h + 1).
Proof. unfold hrd_canonical. intros H. split_hyps. auto. Qed.

Lemma pt_canonical_inv m : pt_canonical m = true ->
  match p_hrd m with Some h => hrd_canonical h = true | None => True end /\ p_tolen m < 32 /\
  num_clock_ts (p_pict m) = Some (length (p_clocks m)) /\
  forallb (clock_avc_canonical (p_tolen m)) (p_clocks m) = true.
Proof.
  unfold pt_canonical. intros H. apply andb_true_iff in H. destruct H as [H Hcs].
  apply andb_true_iff in H. destruct H as [H Hk]. apply andb_true_iff in H. destruct H as [Hh Htol].
  repeat split; [|lia| |exact Hcs].
  - destruct (p_hrd m); [exact Hh|exact I].
  - destruct (num_clock_ts (p_pict m)) as [k|]; [|discriminate]. apply Nat.eqb_eq in Hk. now subst k.
Qed.

Lemma rd_hms_ops full sf s mf m hf h rest :
  hms_canonical full sf s mf m hf h = true ->
  rd_hms full (ops_bits (hms_ops full sf s mf m hf h) ++ rest) = Ok ((sf, s, mf, m, hf, h), rest).
Proof.
  intros H. unfold hms_canonical in H. unfold hms_ops, rd_hms.
  destruct full.
  - split_hyps. subst. norm_bits.
    change (N.to_nat 6) with 6%nat. change (N.to_nat 5) with 5%nat.
    repeat rd_step. reflexivity.
  - destruct sf; [|split_hyps; subst; norm_bits; repeat rd_step; reflexivity].
    destruct mf; [|split_hyps; subst; norm_bits; change (N.to_nat 6) with 6%nat;
                    repeat rd_step; reflexivity].
    destruct hf; split_hyps; subst; norm_bits;
      change (N.to_nat 6) with 6%nat; change (N.to_nat 5) with 5%nat; repeat rd_step; reflexivity.
Qed.

Lemma hms_ops_length full sf s mf m hf h :
  lenN (ops_bits (hms_ops full sf s mf m hf h)) = hms_nrbits full sf mf hf.
Proof.
  unfold hms_ops, hms_nrbits, lenN.
  destruct full; [reflexivity|]. destruct sf; [|reflexivity]. destruct mf; [|reflexivity].
  destruct hf; reflexivity.
Qed.

Lemma rd_clock_ops c rest :
  clock_canonical c = true -> rd_clock (ops_bits (clock_ops c) ++ rest) = Ok (c, rest).
Proof.
  destruct c as [fl un ct full disc dr nf sf s mf m hf h tl tv].
  unfold clock_canonical, clock_ops, rd_clock. cbn [c_flag c_units c_counting c_full c_disc c_dropped
    c_nframes c_secflag c_seconds c_minflag c_minutes c_hrflag c_hours c_tolen c_toval].
  intros H. destruct fl.
  - apply andb_true_iff in H. destruct H as [H Htv].
    apply andb_true_iff in H. destruct H as [H Htl].
    apply andb_true_iff in H. destruct H as [H Hhms].
    split_hyps.
    rewrite ops_bits_cons, !ops_bits_app. cbn [op_bits]. cbn [app].
    rewrite rd_flag_cons. cbn [rbind].
    norm_bits. change (N.to_nat 5) with 5%nat. change (N.to_nat 9) with 9%nat.
    repeat rd_step.
    rewrite (rd_hms_ops _ _ _ _ _ _ _ _ Hhms). cbn [rbind].
    rd_step.
    destruct (N.ltb_spec 0 tl) as [L|L].
    + cbn [flat_map op_bits app]. rewrite app_nil_r.
      rewrite rd_bits_N by assumption. reflexivity.
    + assert (tl = 0) by lia. subst tl. cbn [flat_map app].
      assert (tv = 0) by (cbn in Htv; lia). subst tv. reflexivity.
  - split_hyps. subst. reflexivity.
Qed.

Lemma lenN_ops_cons o t : lenN (ops_bits (o :: t)) = lenN (op_bits o) + lenN (ops_bits t).
Proof. rewrite ops_bits_cons. apply lenN_app. Qed.
Lemma lenN_ops_app a b : lenN (ops_bits (a ++ b)) = lenN (ops_bits a) + lenN (ops_bits b).
Proof. rewrite ops_bits_app. apply lenN_app. Qed.
Lemma lenN_ops_nil : lenN (ops_bits []) = 0.
Proof. reflexivity. Qed.
Lemma lenN_op_flag b : lenN (op_bits (WFlag b)) = 1.
Proof. reflexivity. Qed.
Lemma lenN_op_bits v w : lenN (op_bits (WBits v w)) = w.
Proof. cbn [op_bits]. unfold lenN. rewrite bits_of_length. lia. Qed.

Ltac len_ops :=
  repeat first [ rewrite lenN_ops_cons | rewrite lenN_ops_app | rewrite lenN_ops_nil
               | rewrite lenN_op_flag | rewrite lenN_op_bits | rewrite hms_ops_length ].

Lemma clock_ops_length c : lenN (ops_bits (clock_ops c)) = clock_nrbits c.
Proof.
  destruct c as [fl un ct full disc dr nf sf s mf m hf h tl tv].
  unfold clock_ops, clock_nrbits. cbn [c_flag c_units c_counting c_full c_disc c_dropped
    c_nframes c_secflag c_seconds c_minflag c_minutes c_hrflag c_hours c_tolen c_toval].
  destruct fl; [|reflexivity].
  destruct (N.ltb_spec 0 tl) as [L|L]; len_ops; lia.
Qed.

Lemma rd_clocks_ops : forall cs rest,
  forallb clock_canonical cs = true ->
  rd_clocks (length cs) (ops_bits (flat_map clock_ops cs) ++ rest) = Ok (cs, rest).
Proof.
  induction cs as [|c t IH]; intros rest H; [reflexivity|].
  cbn [forallb] in H. apply andb_true_iff in H. destruct H as [Hc Ht].
  cbn [length rd_clocks flat_map]. rewrite ops_bits_app, <- app_assoc.
  rewrite (rd_clock_ops c _ Hc). cbn [rbind]. rewrite (IH _ Ht). reflexivity.
Qed.

Lemma clocks_ops_length cs :
  lenN (ops_bits (flat_map clock_ops cs)) = sumN (map clock_nrbits cs).
Proof.
  induction cs as [|c t IH]; [reflexivity|].
  cbn [flat_map map sumN]. rewrite ops_bits_app, lenN_app, IH, clock_ops_length. reflexivity.
Qed.

(* the payload as bits, for every value: the coded fields, then filler *)
Lemma tc_spec_bits cs :
  lenN (tc_payload_spec cs) = tc_size cs /\
  exists tail, bytes_to_bits (tc_payload_spec cs)
               = bits_of 2 (lenN cs) ++ ops_bits (flat_map clock_ops cs) ++ tail.
Proof.
  unfold tc_payload_spec, tc_size.
  destruct (spec_bytes_ceil (2 + sumN (map clock_nrbits cs))
              (bits_of 2 (lenN cs) ++ ops_bits (flat_map clock_ops cs)) [true] (tc_ops cs)) as [HL [tail HT]].
  - unfold tc_ops. rewrite ops_bits_cons, ops_bits_app. cbn [op_bits]. now rewrite <- app_assoc.
  - rewrite lenN_app, clocks_ops_length. unfold lenN at 1. rewrite bits_of_length. lia.
  - split; [exact HL|]. exists tail. now rewrite HT, <- app_assoc.
Qed.

Lemma timecode_roundtrip cs :
  tc_canonical cs = true ->
  tc_decode (tc_payload_spec cs) = Ok cs /\ lenN (tc_payload_spec cs) = tc_size cs.
Proof.
  intros H. destruct (tc_canonical_inv cs H) as [Hn Hc]. destruct (tc_spec_bits cs) as [HL [tail HT]].
  split; [|exact HL]. unfold tc_decode. rewrite HT.
  rewrite (rd_bits 2 _ 4) by (try reflexivity; exact Hn). cbn [rbind].
  unfold lenN. rewrite Nat2N.id, (rd_clocks_ops cs _ Hc). reflexivity.
Qed.

Lemma rd_clock_avc_ops tolen c rest :
  tolen < 32 -> clock_avc_canonical tolen c = true ->
  rd_clock_avc tolen (ops_bits (clock_avc_ops c) ++ rest) = Ok (c, rest).
Proof.
  destruct c as [fl ctt nu ct full disc dr nf sf s mf m hf h tl tv].
  unfold clock_avc_canonical, clock_avc_ops, rd_clock_avc. cbn [a_flag a_cttype a_nuit a_counting a_full
    a_disc a_dropped a_nframes a_secflag a_seconds a_minflag a_minutes a_hrflag a_hours a_tolen a_toval].
  intros Htol H. apply andb_true_iff in H. destruct H as [Htl H]. apply N.eqb_eq in Htl. subst tl.
  destruct fl.
  - apply andb_true_iff in H. destruct H as [H Htv].
    apply andb_true_iff in H. destruct H as [H Hhms].
    split_hyps.
    rewrite ops_bits_cons, !ops_bits_app. cbn [op_bits]. cbn [app].
    rewrite rd_flag_cons. cbn [rbind].
    norm_bits. change (N.to_nat 2) with 2%nat. change (N.to_nat 5) with 5%nat. change (N.to_nat 8) with 8%nat.
    repeat rd_step.
    rewrite (rd_hms_ops _ _ _ _ _ _ _ _ Hhms). cbn [rbind].
    destruct (N.ltb_spec 0 tolen) as [L|L].
    + cbn [ops_bits flat_map op_bits app]. rewrite app_nil_r.
      apply andb_true_iff in Htv. destruct Htv as [Hlo Hhi].
      apply Z.leb_le in Hlo. apply Z.ltb_lt in Hhi.
      rewrite rd_signed_bits; [reflexivity|lia|rewrite N_nat_Z; lia].
    + apply Z.eqb_eq in Htv. subst tv. reflexivity.
  - split_hyps. subst. reflexivity.
Qed.

Lemma clock_avc_ops_length c : lenN (ops_bits (clock_avc_ops c)) = clock_avc_nrbits c.
Proof.
  destruct c as [fl ctt nu ct full disc dr nf sf s mf m hf h tl tv].
  unfold clock_avc_ops, clock_avc_nrbits. cbn [a_flag a_cttype a_nuit a_counting a_full
    a_disc a_dropped a_nframes a_secflag a_seconds a_minflag a_minutes a_hrflag a_hours a_tolen a_toval].
  destruct fl; [|reflexivity].
  destruct (N.ltb_spec 0 tl) as [L|L]; len_ops; lia.
Qed.

Lemma rd_clocks_avc_ops tolen : forall cs rest,
  tolen < 32 -> forallb (clock_avc_canonical tolen) cs = true ->
  rd_clocks_avc (length cs) tolen (ops_bits (flat_map clock_avc_ops cs) ++ rest) = Ok (cs, rest).
Proof.
  induction cs as [|c t IH]; intros rest Htol H; [reflexivity|].
  cbn [forallb] in H. apply andb_true_iff in H. destruct H as [Hc Ht].
  cbn [length rd_clocks_avc flat_map]. rewrite ops_bits_app, <- app_assoc.
  rewrite (rd_clock_avc_ops tolen c _ Htol Hc). cbn [rbind]. rewrite (IH _ Htol Ht). reflexivity.
Qed.

Lemma clocks_avc_ops_length cs :
  lenN (ops_bits (flat_map clock_avc_ops cs)) = sumN (map clock_avc_nrbits cs).
Proof.
  induction cs as [|c t IH]; [reflexivity|].
  cbn [flat_map map sumN]. rewrite ops_bits_app, lenN_app, IH, clock_avc_ops_length. reflexivity.
Qed.

(* the optional HRD delays at the head of the message *)
Definition hrd_bits_of (hrd : option hrd_delay) : list bool :=
  match hrd with
  | Some h => bits_of (N.to_nat (h_cpb_len1 h + 1)) (h_cpb_delay h) ++
              bits_of (N.to_nat (h_dpb_len1 h + 1)) (h_dpb_delay h)
  | None => []
  end.

Lemma pt_spec_bits m :
  lenN (pt_payload_spec m) = pt_size m /\
  exists tail, bytes_to_bits (pt_payload_spec m)
               = hrd_bits_of (p_hrd m) ++ bits_of 4 (p_pict m) ++ ops_bits (flat_map clock_avc_ops (p_clocks m)) ++ tail.
Proof.
  unfold pt_payload_spec, pt_size.
  destruct (spec_bytes_ceil
              (match p_hrd m with Some h => (h_cpb_len1 h + 1) + (h_dpb_len1 h + 1) | None => 0 end
               + 4 + sumN (map clock_avc_nrbits (p_clocks m)))
              (hrd_bits_of (p_hrd m) ++ bits_of 4 (p_pict m) ++ ops_bits (flat_map clock_avc_ops (p_clocks m)))
              [] (pt_ops m)) as [HL [tail HT]].
  - unfold pt_ops, hrd_bits_of. rewrite app_nil_r, ops_bits_app, ops_bits_cons. cbn [op_bits]. f_equal.
    destruct (p_hrd m); [|reflexivity]. cbn [ops_bits flat_map op_bits app]. now rewrite app_nil_r.
  - unfold hrd_bits_of. rewrite !lenN_app, clocks_avc_ops_length.
    replace (lenN (bits_of 4 (p_pict m))) with 4 by (unfold lenN; now rewrite bits_of_length).
    destruct (p_hrd m); [|rewrite lenN_nil; lia].
    rewrite lenN_app. unfold lenN. rewrite !bits_of_length. lia.
  - split; [exact HL|]. exists tail. now rewrite HT, <- !app_assoc.
Qed.

Lemma pic_timing_roundtrip m :
  pt_canonical m = true ->
  pt_decode (p_hrd m) (p_tolen m) (pt_payload_spec m) = Ok m /\ lenN (pt_payload_spec m) = pt_size m.
Proof.
  intros H. destruct (pt_canonical_inv m H) as (Hh & Htol & Ek & Hcs).
  destruct (num_clock_ts_inv _ _ Ek) as [Hp _]. destruct (pt_spec_bits m) as [HL [tail HT]].
  split; [|exact HL]. unfold pt_decode. rewrite HT. unfold hrd_bits_of.
  destruct m as [[h|] tolen pict cs]; cbn [p_hrd p_tolen p_pict p_clocks] in *.
  - destruct (hrd_canonical_inv h Hh) as (_ & _ & D1 & D2). rewrite <- !app_assoc.
    rewrite rd_bits_N by assumption. cbn [rbind]. rewrite rd_bits_N by assumption. cbn [rbind].
    rewrite (rd_bits 4 _ 16) by (try reflexivity; exact Hp). cbn [rbind].
    rewrite Ek, (rd_clocks_avc_ops tolen cs _ Htol Hcs). cbn [rbind]. now destruct h.
  - cbn [rbind app].
    rewrite (rd_bits 4 _ 16) by (try reflexivity; exact Hp). cbn [rbind].
    now rewrite Ek, (rd_clocks_avc_ops tolen cs _ Htol Hcs).
Qed.

Lemma mdcv_roundtrip m :
  mdcv_canonical m = true ->
  mdcv_decode (mdcv_payload m) = Ok m /\ lenN (mdcv_payload m) = mdcv_size.
Proof.
  destruct m as [x0 y0 x1 y1 x2 y2 wx wy mx mn]. unfold mdcv_canonical.
  cbn [md_x0 md_y0 md_x1 md_y1 md_x2 md_y2 md_wx md_wy md_max md_min]. intros H. split_hyps.
  split; [|reflexivity].
  unfold mdcv_decode, mdcv_payload. change (negb (lenN _ =? mdcv_size)) with false. cbv iota.
  cbn [md_x0 md_y0 md_x1 md_y1 md_x2 md_y2 md_wx md_wy md_max md_min].
  rewrite <- (app_nil_r (be32 mn)).
  repeat (rewrite rd_be16 by assumption; cbv iota). now rewrite !rd_be32 by assumption.
Qed.

Lemma cll_roundtrip m :
  cll_canonical m = true ->
  cll_decode (cll_payload m) = Ok m /\ lenN (cll_payload m) = cll_size.
Proof.
  destruct m as [a b]. unfold cll_canonical. cbn [cl_max cl_avg]. intros H. split_hyps.
  split; [|reflexivity].
  unfold cll_decode, cll_payload. change (negb (lenN _ =? cll_size)) with false. cbv iota. cbn [cl_max cl_avg].
  rewrite <- (app_nil_r (be16 b)). now rewrite !rd_be16 by assumption.
Qed.

(* what a pass-through decoder returns: the payload, kept, and the kind of message *)
Lemma decode_registered_inv pl m : decode_registered pl = Ok m ->
  ps_payload m = pl /\ (ps_kind m = KRegistered \/ exists f1 f2, ps_kind m = KCea608 f1 f2).
Proof.
  unfold decode_registered. destruct (length pl <? 8)%nat; [discriminate|].
  destruct (_ && _).
  - destruct (parse_cea608 (skipn 8 pl)) as [[f1 f2]| | |]; cbn [rbind]; try discriminate.
    intros [= <-]. split; [reflexivity|right; now exists f1, f2].
  - intros [= <-]. split; [reflexivity|now left].
Qed.

Lemma decode_unregistered_inv pl m : decode_unregistered pl = Ok m ->
  ps_payload m = pl /\ ps_kind m = KUnregistered (firstn 16 pl).
Proof. unfold decode_unregistered. destruct (length pl <? 16)%nat; [discriminate|]. now intros [= <-]. Qed.

Lemma decode_pic_timing_hevc_inv par pl m : decode_pic_timing_hevc par pl = Ok m ->
  ps_payload m = pl /\ ps_kind m = KPicTimingHevc.
Proof.
  unfold decode_pic_timing_hevc. destruct (hevc_final par pl) as [s| | |]; cbn [rbind]; try discriminate.
  destruct (rerr s); [discriminate|]. now intros [= <-].
Qed.

Lemma passthrough_all :
  (forall pl m, decode_registered pl = Ok m -> pass_payload m = pl /\ pass_size m = lenN pl) /\
  (forall pl m, decode_unregistered pl = Ok m -> pass_payload m = pl /\ pass_size m = lenN pl) /\
  (forall par pl m, decode_pic_timing_hevc par pl = Ok m -> pass_payload m = pl /\ pass_size m = lenN pl).
Proof.
  unfold pass_payload, pass_size. split; [|split].
  - intros pl m H. apply decode_registered_inv in H. now destruct H as [-> _].
  - intros pl m H. apply decode_unregistered_inv in H. now destruct H as [-> _].
  - intros par pl m H. apply decode_pic_timing_hevc_inv in H. now destruct H as [-> _].
Qed.
