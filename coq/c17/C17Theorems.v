(* C17Theorems.v — the property theorems of C17 and nothing else.  Each is closed by
   `exact <lemma>` and followed by Print Assumptions (audited by ./check on every run). *)
From V.lib Require Import Base.
From V.c13 Require Import C13Spec C13Model.
From V.c17 Require Import C17Spec C17Model C17RbspProofs C17WriterProofs C17EbspProofs.
From V.c17 Require Import C17TypedModel C17BitProofs C17TypedProofs C17FswProofs C17ComposeProofs.
From V.c17 Require Import C17HistModel C17HistProofs C17CanonProofs C17TieModel C17TieProofs.
From V.c17 Require Import C17NaluModel C17NaluProofs C17SizeModel C17SizeProofs.

(* the 0xFF-run code of payload type (Go uint accumulator) and payload size (uint32
   accumulator) decodes to the value and leaves the rest of the input untouched: every value
   that fits the accumulator, incl. >= 255 and multiples of 255 *)
Theorem C17_sei_value_rt : forall v r,
  (v < 2 ^ 64 -> ff_dec u64 (ff_enc v ++ r) 0 = Some (v, r)) /\
  (v < 2 ^ 32 -> ff_dec u32 (ff_enc v ++ r) 0 = Some (v, r)).
Proof. exact sei_value_rt. Qed.
Print Assumptions C17_sei_value_rt.

(* WriteSEIValue (C13 model of the EBSP writer) writes exactly the bytes of that code *)
Theorem C17_write_sei_value_is_ff_enc : forall s v,
  write_sei_value s v = fold_left write_byte (ff_enc v) s.
Proof. exact write_sei_value_enc. Qed.
Print Assumptions C17_write_sei_value_is_ff_enc.

(* the writer model performs Write(b, 8) for the bytes of ser msgs, then the trailing bits *)
Theorem C17_writer_is_ser : forall msgs,
  write_sei_messages msgs = wout (write_trailing (fold_left write_byte (ser msgs) winit)).
Proof. exact write_sei_messages_ser. Qed.
Print Assumptions C17_writer_is_ser.

(* rbsp level: for every NON-EMPTY message list with any types (< 2^64), any sizes (< 2^32,
   equal to the payload length) and any payload bytes, the extractor on the plain
   serialisation followed by the trailing-bits byte returns the (type, payload) list, with
   no error and no trailing-bits-missing verdict *)
Theorem C17_list_roundtrip_rbsp : forall msgs,
  msgs <> [] -> msgs_ok msgs = true ->
  extract_rbsp_all (rbsp_of msgs) = XOk (observed msgs).
Proof. exact rbsp_roundtrip. Qed.
Print Assumptions C17_list_roundtrip_rbsp.

(* the bytes the writer model emits (through the C13 EBSP writer model) are the emulation-
   prevented plain serialisation followed by the trailing-bits byte *)
Theorem C17_writer_is_escape : forall msgs,
  msgs_ok msgs = true -> write_sei_messages msgs = escape (rbsp_of msgs).
Proof. exact writer_is_escape_ok. Qed.
Print Assumptions C17_writer_is_escape.

(* THE list round trip, on the real (emulation-prevented) byte stream, through the C13 models of
   bits.EBSPWriter and bits.EBSPReader: for every NON-EMPTY message list, any types, any sizes,
   any payload bytes (needing emulation prevention, ending in zero bytes, equal to 80, ...):
   ExtractSEIData (WriteSEIMessages msgs) = the (type, payload) list, no trailing-bits error *)
Theorem C17_list_roundtrip : forall msgs,
  msgs <> [] -> msgs_ok msgs = true ->
  extract_sei_data (write_sei_messages msgs) = XOk (observed msgs).
Proof. exact list_roundtrip_ebsp. Qed.
Print Assumptions C17_list_roundtrip.

Example C17_list_roundtrip_rbsp_hyp :
  let msgs := [mkMsg 5 3 [0; 0; 1]; mkMsg 300 0 []; mkMsg 255 2 [128; 0]] in
  msgs <> [] /\ msgs_ok msgs = true /\
  extract_sei_data (write_sei_messages msgs) = XOk (observed msgs).
Proof. split; [discriminate|]. split; vm_compute; reflexivity. Qed.

(* the empty list is outside the statement: only 80 is written and the extractor rejects it *)
Theorem C17_empty_list_rejected :
  write_sei_messages [] = [128] /\ extract_sei_data [128] = XErr.
Proof. exact empty_list_rejected. Qed.
Print Assumptions C17_empty_list_rejected.

(* canonical = every field fits its coded width and every field the flags make absent is zero.
   *_payload_spec is the FixedSliceWriter output read as a bit list (coded bits, final 1 bit for the
   time code, zero padding, cut at the capacity Size()); the executable *_payload runs the same ops
   through the C13 FixedSliceWriter model and is compared with it on every correspondence case. *)

(* SEI 136 time code: 0..3 clocks, every flag combination, time-offset lengths 0..31; includes the
   case where the coded bit length is a multiple of 8 and the final 1 bit overflows the buffer *)
Theorem C17_timecode : forall cs,
  tc_canonical cs = true ->
  tc_decode (tc_payload_spec cs) = Ok cs /\ lenN (tc_payload_spec cs) = tc_size cs.
Proof. exact timecode_roundtrip. Qed.
Print Assumptions C17_timecode.

(* ... and the executable payload (ops through the C13 model of bits.FixedSliceWriter, FlushBits,
   cut at the capacity Size()) is that bit-list form, so the round trip holds for it *)
Theorem C17_timecode_exec : forall cs,
  tc_canonical cs = true ->
  tc_payload cs = tc_payload_spec cs /\
  tc_decode (tc_payload cs) = Ok cs /\ lenN (tc_payload cs) = tc_size cs.
Proof. exact timecode_exec. Qed.
Print Assumptions C17_timecode_exec.

Example C17_timecode_hyp :
  let cs := [mkClock true true 3 false true false 300 true 59 true 58 false 0 5 17;
             mkClock true false 0 true false false 25 false 1 false 2 false 3 0 0;
             clock_zero] in
  tc_canonical cs = true /\ tc_payload cs = tc_payload_spec cs /\ tc_size cs = 11.
Proof. repeat split; vm_compute; reflexivity. Qed.

(* a time code whose coded length is a multiple of 8 (2 + 1 + 18 + 1 + 5 + 5 = 32 bits): the final
   1 bit does not fit the buffer and is dropped; Size() = 4 = the payload length *)
Example C17_timecode_aligned :
  let cs := [mkClock true false 0 false false false 0 false 0 false 0 false 0 5 1] in
  tc_canonical cs = true /\ tc_payload cs = [96; 0; 0; 161] /\ tc_size cs = 4 /\
  tc_decode (tc_payload cs) = Ok cs.
Proof. repeat split; vm_compute; reflexivity. Qed.

(* AVC SEI 1 picture timing, with and without HRD delays, external time-offset length 0..31,
   1..3 clocks as pict_struct dictates, every flag combination *)
Theorem C17_pic_timing_avc : forall m,
  pt_canonical m = true ->
  pt_decode (p_hrd m) (p_tolen m) (pt_payload_spec m) = Ok m /\ lenN (pt_payload_spec m) = pt_size m.
Proof. exact pic_timing_roundtrip. Qed.
Print Assumptions C17_pic_timing_avc.

Theorem C17_pic_timing_avc_exec : forall m,
  pt_canonical m = true ->
  pt_payload m = pt_payload_spec m /\
  pt_decode (p_hrd m) (p_tolen m) (pt_payload m) = Ok m /\ lenN (pt_payload m) = pt_size m.
Proof. exact pic_timing_exec. Qed.
Print Assumptions C17_pic_timing_avc_exec.

Example C17_pic_timing_avc_hyp :
  let m := mkPT (Some (mkHrd 1000 2000 23 15 20)) 5 3
                [mkClockAvc true 1 false 4 true false true 200 false 5 false 6 false 7 5 (-3)%Z;
                 clock_avc_zero 5] in
  pt_canonical m = true /\ pt_payload m = pt_payload_spec m.
Proof. split; vm_compute; reflexivity. Qed.

Theorem C17_mdcv : forall m,
  mdcv_canonical m = true ->
  mdcv_decode (mdcv_payload m) = Ok m /\ lenN (mdcv_payload m) = mdcv_size.
Proof. exact mdcv_roundtrip. Qed.
Print Assumptions C17_mdcv.

Theorem C17_cll : forall m,
  cll_canonical m = true ->
  cll_decode (cll_payload m) = Ok m /\ lenN (cll_payload m) = cll_size.
Proof. exact cll_roundtrip. Qed.
Print Assumptions C17_cll.

Example C17_mdcv_cll_hyp :
  mdcv_canonical (mkMdcv 65535 1 0 0 1 48026 0 0 4294967295 1) = true /\ cll_canonical (mkCll 1000 65535) = true.
Proof. split; reflexivity. Qed.

(* pass-through messages: whenever the decoder returns a message (it can also return an error), Payload() is the input and Size() its length *)
Theorem C17_passthrough :
  (forall pl m, decode_registered pl = Ok m -> pass_payload m = pl /\ pass_size m = lenN pl) /\
  (forall pl m, decode_unregistered pl = Ok m -> pass_payload m = pl /\ pass_size m = lenN pl) /\
  (forall par pl m, decode_pic_timing_hevc par pl = Ok m -> pass_payload m = pl /\ pass_size m = lenN pl).
Proof. exact passthrough_all. Qed.
Print Assumptions C17_passthrough.

Example C17_passthrough_hyp :
  exists m, decode_registered [181; 0; 49; 71; 65; 57; 52; 3; 193; 255; 252; 148; 44; 255] = Ok m /\
            ps_kind m = KCea608 [148; 44] [].
Proof. eexists. split; vm_compute; reflexivity. Qed.

(* a canonical typed message, as WriteSEIMessages sees it (Type(), Size(), Payload()), satisfies the
   hypotheses of C17_list_roundtrip: Size() = |Payload()| < 2^32 and the payload is a byte string *)
Theorem C17_typed_msgs_ok :
  (forall cs, tc_canonical cs = true -> msg_ok (mkMsg 136 (tc_size cs) (tc_payload cs)) = true) /\
  (forall m, pt_canonical m = true -> msg_ok (mkMsg 1 (pt_size m) (pt_payload m)) = true) /\
  (forall m, msg_ok (mkMsg 137 mdcv_size (mdcv_payload m)) = true) /\
  (forall m, msg_ok (mkMsg 144 cll_size (cll_payload m)) = true).
Proof. exact typed_msgs_ok. Qed.
Print Assumptions C17_typed_msgs_ok.

(* end to end for the time code: between any other messages, written, extracted, decoded *)
Theorem C17_timecode_in_nalu : forall cs pre post,
  tc_canonical cs = true -> msgs_ok pre = true -> msgs_ok post = true ->
  extract_sei_data (write_sei_messages (pre ++ mkMsg 136 (tc_size cs) (tc_payload cs) :: post))
  = XOk (observed pre ++ (136, tc_payload cs) :: observed post)
  /\ tc_decode (tc_payload cs) = Ok cs.
Proof. exact timecode_in_nalu. Qed.
Print Assumptions C17_timecode_in_nalu.

(* A typed message value is the record of its exported fields (C17HistModel.typed); the Go values are
   reached through HISTORIES: a struct literal or a decoder (DecodeXxx, DecodeSEIMessage,
   avc/hevc.ParseSEINalu), then any number of steps: SEdit f (ANY change of the exported fields),
   SCopy (struct copy), SObserve (Size()/Payload()/String()/WriteSEIMessages called, result dropped),
   SRedecode (serialise, decode, go on with the result).
   Size()/Payload()/the written NAL unit depend on the final exported field record only: equal field
   records, whatever histories produced them, give equal observables.  Definitional in the model;
   this is the statement the correspondence (H lines: observables of the final Go value of a generated
   history vs typed_observe of its final exported fields) ties to the code. *)
Theorem C17_payload_depends_on_fields : forall o1 ss1 o2 ss2 t1 t2,
  run_history o1 ss1 = Ok t1 -> run_history o2 ss2 = Ok t2 -> t1 = t2 ->
  typed_payload t1 = typed_payload t2 /\ typed_size t1 = typed_size t2 /\ typed_observe t1 = typed_observe t2.
Proof. exact payload_depends_on_fields. Qed.
Print Assumptions C17_payload_depends_on_fields.

(* hence the typed round trip for ANY message value: the final value of any history, if canonical,
   decodes from its own payload to itself, Size() is the payload length, and WriteSEIMessages +
   ExtractSEIData return its (type, payload) *)
Theorem C17_history_roundtrip : forall o ss t,
  run_history o ss = Ok t -> typed_canonical t = true ->
  typed_decode_like t (typed_payload t) = Ok t /\
  lenN (typed_payload t) = typed_size t /\
  extract_sei_data (write_sei_messages [typed_msg t]) = XOk [(typed_type t, typed_payload t)].
Proof. exact history_roundtrip. Qed.
Print Assumptions C17_history_roundtrip.

(* when every edit keeps the value canonical, every intermediate value is canonical, the re-decode
   steps are no-ops, and the history ends (without error) in the edits applied to the start value *)
Theorem C17_canonical_history : forall ss t,
  Forall step_keeps_canonical ss -> typed_canonical t = true ->
  run_steps ss t = Ok (apply_edits ss t) /\ typed_canonical (apply_edits ss t) = true.
Proof. exact canonical_history_steps. Qed.
Print Assumptions C17_canonical_history.

(* any canonical typed message between any other messages of an SEI NAL unit (generalises
   C17_timecode_in_nalu to the four typed messages) *)
Theorem C17_typed_in_nalu : forall t pre post,
  typed_canonical t = true -> msgs_ok pre = true -> msgs_ok post = true ->
  extract_sei_data (write_sei_messages (pre ++ typed_msg t :: post))
  = XOk (observed pre ++ (typed_type t, typed_payload t) :: observed post).
Proof. exact typed_in_nalu. Qed.
Print Assumptions C17_typed_in_nalu.

(* whatever a typed decoder returns is canonical (external parameters: 5-bit length fields) *)
Theorem C17_decoded_is_canonical : forall like pl t,
  like_ok like = true -> bytes_ok pl = true ->
  typed_decode_like like pl = Ok t -> typed_canonical t = true.
Proof. exact decode_canonical. Qed.
Print Assumptions C17_decoded_is_canonical.

(* the multi-step history start to end: decode ANY payload the decoder accepts, then any steps
   (canonical-preserving edits, struct copies, serialiser calls, re-decodes): no error on the way,
   the final value is the edits applied to the decoded value, and it round-trips *)
Theorem C17_decoded_history_roundtrip : forall like pl t0 ss,
  like_ok like = true -> bytes_ok pl = true -> typed_decode_like like pl = Ok t0 ->
  Forall step_keeps_canonical ss ->
  let t := apply_edits ss t0 in
  run_history (ODecode like pl) ss = Ok t /\ typed_canonical t = true /\
  typed_decode_like t (typed_payload t) = Ok t /\ lenN (typed_payload t) = typed_size t /\
  extract_sei_data (write_sei_messages [typed_msg t]) = XOk [(typed_type t, typed_payload t)].
Proof. exact decoded_history_roundtrip. Qed.
Print Assumptions C17_decoded_history_roundtrip.

(* a history of the kind the seeded change breaks: decode a picture timing message, copy it, change
   NFrames and pict_struct of the copy, re-decode: the final value is canonical and its payload is the
   serialisation of the EDITED fields (28 00 4d 00), not the decoded bytes (08 80 05 00) *)
Example C17_history_hyp :
  let like := TPicTiming (mkPT None 0 0 []) in
  let f t := match t with
             | TPicTiming (mkPT h tl _ [c]) =>
                 TPicTiming (mkPT h tl 2 [mkClockAvc true (a_cttype c) false 0 false false false 77 false 0 false 0 false 0 0 0%Z])
             | _ => t
             end in
  exists t, run_history (ODecode like [8; 128; 5; 0]) [SCopy; SObserve; SEdit f; SRedecode] = Ok t /\
            typed_canonical t = true /\ typed_payload t = [40; 0; 77; 0].
Proof. eexists. split; [vm_compute; reflexivity|]. split; vm_compute; reflexivity. Qed.

(* the hypotheses of C17_decoded_history_roundtrip are satisfiable: a content light level message
   decoded from 01 02 03 04, copied, its two fields swapped, serialised, decoded again *)
Example C17_decoded_history_hyp :
  let f t := match t with TCll m => TCll (mkCll (cl_avg m) (cl_max m)) | _ => t end in
  like_ok (TCll (mkCll 0 0)) = true /\ bytes_ok [1; 2; 3; 4] = true /\
  typed_decode_like (TCll (mkCll 0 0)) [1; 2; 3; 4] = Ok (TCll (mkCll 258 772)) /\
  Forall step_keeps_canonical [SCopy; SEdit f; SObserve; SRedecode] /\
  typed_payload (apply_edits [SCopy; SEdit f; SObserve; SRedecode] (TCll (mkCll 258 772))) = [3; 4; 1; 2].
Proof.
  cbv zeta. split; [reflexivity|]. split; [reflexivity|]. split; [vm_compute; reflexivity|].
  split; [|vm_compute; reflexivity].
  apply Forall_cons; [exact I|]. apply Forall_cons; [|apply Forall_cons; [exact I|apply Forall_cons; [exact I|apply Forall_nil]]].
  intros t H. destruct t as [cs|m|m|m]; try exact H.
  cbn [typed_canonical] in *. unfold cll_canonical in *. cbn [cl_max cl_avg]. rewrite andb_comm. exact H.
Qed.

(* The typed decoders above read a bit list and stop at the first failed read.  tc_decode_go /
   pt_decode_go (C17TieModel) are the same Go functions transcribed over the C13 model of the
   bits.Reader MACHINE (value/n/pos accumulator over the byte slice, 64-bit shifts, accumulated
   error: after a failed read every Read returns 0, the decoder runs on to its end, AccError() is
   looked at last; the Go conversions byte()/uint16()/uint32() written out).  On every byte string
   (and all 5-bit external length parameters) both compute the same result: value, or error. *)
Theorem C17_decoders_tie :
  (forall payload, bytes_ok payload = true -> tc_decode_go payload = tc_decode payload) /\
  (forall ext tolen payload, ext_ok ext tolen = true -> bytes_ok payload = true ->
     pt_decode_go ext tolen payload = pt_decode ext tolen payload).
Proof. exact decoders_tie. Qed.
Print Assumptions C17_decoders_tie.

(* hence the typed round trips hold for the machine-level decoders *)
Theorem C17_roundtrip_machine :
  (forall cs, tc_canonical cs = true -> tc_decode_go (tc_payload cs) = Ok cs) /\
  (forall m, pt_canonical m = true -> pt_decode_go (p_hrd m) (p_tolen m) (pt_payload m) = Ok m).
Proof. exact roundtrip_machine. Qed.
Print Assumptions C17_roundtrip_machine.

Example C17_decoders_tie_hyp :
  ext_ok (Some (mkHrd 0 0 23 15 20)) 5 = true /\ bytes_ok [8; 128; 5; 0] = true /\
  tc_decode_go [96; 0; 0; 161] = tc_decode [96; 0; 0; 161] /\
  pt_decode_go None 0 [8; 128] = Err /\ pt_decode None 0 [8; 128] = Err.
Proof. repeat split; vm_compute; reflexivity. Qed.

(* C17NaluModel: sei.DecodeSEIMessage (dispatch on codec and type), avc.ParseSEINalu (header & 0x1f = 6,
   picture timing decoded with the lengths of the SPS' VclHrdParameters, else NalHrdParameters, cut to a
   byte) and hevc.ParseSEINalu (two header bytes, type 39 | 40, fillHEVCPicTimingParams).
   For EVERY non-empty written list (any types, sizes, payload bytes) and every valid header the wrappers
   run their decoders on exactly the written (type, payload) pairs, in order, and report no
   trailing-bits error: the outcome is that of the per-message decoders (first error ends the call). *)
Theorem C17_nalu_written :
  (forall par h msgs, N.land h 31 = 6 -> msgs <> [] -> msgs_ok msgs = true ->
     parse_sei_nalu_avc par (h :: write_sei_messages msgs) = pres_of (decode_all (decode_avc par) (observed msgs))) /\
  (forall par h1 h2 msgs, (N.land (h1 / 2) 63 = 39 \/ N.land (h1 / 2) 63 = 40) -> msgs <> [] -> msgs_ok msgs = true ->
     parse_sei_nalu_hevc par (h1 :: h2 :: write_sei_messages msgs) = pres_of (decode_all (decode_hevc par) (observed msgs))).
Proof. exact nalu_written. Qed.
Print Assumptions C17_nalu_written.

(* THE round trip through the wrappers, mixed lists: canonical typed messages of the path (AVC: picture
   timing carrying the external lengths of the SPS, with or without HRD; HEVC: time code, mastering
   display colour volume, content light level), pass-through messages (any value a pass-through decoder
   returned: registered / CEA-608 / unregistered user data, HEVC picture timing under a VUI) and general
   data of any other type, in any order: written with a valid header and parsed, the SAME message values
   come back (typed messages equal field by field, pass-through and general messages with their payload) *)
Theorem C17_nalu_roundtrip :
  (forall par h ms, N.land h 31 = 6 -> ms <> [] -> Forall (sm_wf_avc par) ms ->
     parse_sei_nalu_avc par (h :: write_sei_messages (map sm_msg ms)) = POk ms) /\
  (forall par h1 h2 ms, (N.land (h1 / 2) 63 = 39 \/ N.land (h1 / 2) 63 = 40) -> ms <> [] -> Forall (sm_wf_hevc par) ms ->
     parse_sei_nalu_hevc par (h1 :: h2 :: write_sei_messages (map sm_msg ms)) = POk ms).
Proof. exact nalu_roundtrip. Qed.
Print Assumptions C17_nalu_roundtrip.

(* hypotheses satisfiable: AVC, SPS with Vcl HRD lengths (279 = 256 + 23 is cut to the byte 23), a picture
   timing message with HRD delays, CEA-608 user data and general data of type 300 *)
Example C17_nalu_roundtrip_avc_hyp :
  let par := APVui (Some (279, 15, 5)) (Some (1, 1, 1)) in
  let pt := mkPT (Some (mkHrd 1000 2000 0 23 15)) 5 3
                 [mkClockAvc true 1 false 4 true false true 200 false 5 false 6 false 7 5 (-3)%Z; clock_avc_zero 5] in
  let cea := mkPass (KCea608 [148; 44] []) [181; 0; 49; 71; 65; 57; 52; 3; 193; 255; 252; 148; 44; 255] in
  let ms := [MTyped (TPicTiming pt); MPass cea; MRaw 300 [0; 0; 3]] in
  N.land 102 31 = 6 /\ Forall (sm_wf_avc par) ms /\
  parse_sei_nalu_avc par (102 :: write_sei_messages (map sm_msg ms)) = POk ms.
Proof.
  cbv zeta. split; [reflexivity|]. split; [|vm_compute; reflexivity].
  repeat apply Forall_cons; try apply Forall_nil.
  - cbn [sm_wf_avc]. repeat split; vm_compute; reflexivity.
  - cbn [sm_wf_avc]. split; [vm_compute; reflexivity|].
    exists [181; 0; 49; 71; 65; 57; 52; 3; 193; 255; 252; 148; 44; 255]. left. vm_compute. reflexivity.
  - cbn [sm_wf_avc]. split; [vm_compute; reflexivity|]. repeat split; discriminate.
Qed.

(* HEVC, suffix SEI header (80 = 40 * 2), VUI with HRD: a time code, a picture timing pass-through
   message, content light level, unregistered user data *)
Example C17_nalu_roundtrip_hevc_hyp :
  let par := HPVui true (Some (mkHevcHrd true false false false 7 7 0 0)) in
  let pth := mkPass KPicTimingHevc [16; 1; 2; 128] in
  let un := mkPass (KUnregistered [1; 2; 3; 4; 5; 6; 7; 8; 9; 10; 11; 12; 13; 14; 15; 16])
                   [1; 2; 3; 4; 5; 6; 7; 8; 9; 10; 11; 12; 13; 14; 15; 16; 0; 0] in
  let ms := [MTyped (TTimeCode [mkClock true false 0 false false false 0 false 0 false 0 false 0 5 1]);
             MPass pth; MTyped (TCll (mkCll 1000 65535)); MPass un] in
  Forall (sm_wf_hevc par) ms /\
  parse_sei_nalu_hevc par (80 :: 1 :: write_sei_messages (map sm_msg ms)) = POk ms.
Proof.
  cbv zeta. split; [|vm_compute; reflexivity].
  repeat apply Forall_cons; try apply Forall_nil.
  - vm_compute. reflexivity.
  - cbn [sm_wf_hevc]. split; [vm_compute; reflexivity|].
    exists [16; 1; 2; 128]. right. right. eexists. eexists. split; [reflexivity|]. vm_compute. reflexivity.
  - vm_compute. reflexivity.
  - cbn [sm_wf_hevc]. split; [vm_compute; reflexivity|].
    exists [1; 2; 3; 4; 5; 6; 7; 8; 9; 10; 11; 12; 13; 14; 15; 16; 0; 0]. right. left. vm_compute. reflexivity.
Qed.

(* a typed message of the OTHER codec is not lost either: avc.ParseSEINalu returns a written time code
   as general data with its payload (by C17_nalu_written: type 136 has no decoder on the AVC path) *)
Example C17_nalu_written_hyp :
  let cs := [mkClock true false 0 false false false 0 false 0 false 0 false 0 5 1] in
  parse_sei_nalu_avc APNone (6 :: write_sei_messages [mkMsg 136 (tc_size cs) (tc_payload cs)]) = POk [MRaw 136 [96; 0; 0; 161]].
Proof. vm_compute. reflexivity. Qed.

(* "Size() equals the serialised length" without the canonical hypothesis: ANY time code value (any
   number of clocks, any field values incl. ones wider than their code, junk in fields the flags make
   absent), ANY AVC picture timing value (any pict_struct, any clock count, per-clock time-offset
   lengths differing from the message's, delays wider than their lengths), every mdcv / cll value.
   The only hypothesis bounds the WIDTHS handed to FixedSliceWriter.Write by 56 (time-offset lengths,
   HRD lengths; the Go fields are bytes, the coded ones 5 bits): the domain of the C13 writer lemma. *)
Theorem C17_size_any_value :
  (forall cs, tc_widths_ok cs = true -> tc_payload cs = tc_payload_spec cs /\ lenN (tc_payload cs) = tc_size cs) /\
  (forall m, pt_widths_ok m = true -> pt_payload m = pt_payload_spec m /\ lenN (pt_payload m) = pt_size m) /\
  (forall m, lenN (mdcv_payload m) = mdcv_size) /\
  (forall m, lenN (cll_payload m) = cll_size).
Proof. exact size_any_value. Qed.
Print Assumptions C17_size_any_value.

(* non-canonical values inside the hypotheses: five clocks, NFrames 70000, seconds without their flag,
   a 40-bit time offset; a picture timing with pict_struct 13, no clocks and a delay wider than its length *)
Example C17_size_any_value_hyp :
  let cs := [mkClock true true 77 false true false 70000 false 200 true 3 false 9 40 (2 ^ 45);
             clock_zero; clock_zero; mkClock false true 1 true true true 1 true 1 true 1 true 1 1 1; clock_zero] in
  let m := mkPT (Some (mkHrd (2 ^ 60) 5 0 55 0)) 3 13 [] in
  tc_widths_ok cs = true /\ tc_canonical cs = false /\ lenN (tc_payload cs) = tc_size cs /\
  pt_widths_ok m = true /\ pt_canonical m = false /\ lenN (pt_payload m) = pt_size m.
Proof. repeat split; vm_compute; reflexivity. Qed.
