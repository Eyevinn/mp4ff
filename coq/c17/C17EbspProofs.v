(* C17EbspProofs.v — the round trip on the REAL (emulation-prevented) byte stream: the model's
   writer output is escape (ser msgs ++ [0x80]) and the model's extractor (C13 EBSP reader model)
   returns the message list from it.  Composes the rbsp-level facts with the C13 lemmas
   (writer = escape of the bit stream, reader = bit stream of the unescaped input,
   MoreRbspData = "a 1 bit follows the next bit"). *)
From V.lib Require Import Base.
From V.c13 Require Import C13Spec C13Model C13Bits C13EscProofs C13MarkProofs C13WriterProofs C13ReaderProofs.
From V.c17 Require Import C17Spec C17Model C17RbspProofs C17WriterProofs.

Lemma bytes_ok_Forall l : bytes_ok l = true <-> Forall (fun b => b < 256) l.
Proof.
  unfold bytes_ok, byte_ok. rewrite forallb_forall, Forall_forall.
  split; intros H x Hx; specialize (H x Hx); [apply N.ltb_lt|apply N.ltb_lt]; exact H.
Qed.

Lemma write_byte_stream s cur b :
  WStream s cur -> WStream (write_byte s b) (cur ++ bits_of 8 b).
Proof. intros H. exact (write_stream s cur b 8 H ltac:(lia)). Qed.

Lemma write_bytes_stream l : forall s cur,
  WStream s cur -> WStream (fold_left write_byte l s) (cur ++ bytes_to_bits l).
Proof.
  induction l as [|b t IH]; intros s cur H.
  - cbn [fold_left bytes_to_bits flat_map]. rewrite app_nil_r. exact H.
  - cbn [fold_left]. unfold bytes_to_bits. cbn [flat_map]. rewrite app_assoc.
    apply IH. apply write_byte_stream. exact H.
Qed.

Lemma WStream_init : WStream winit [].
Proof. exists []. split; [apply WInv_init|reflexivity]. Qed.

Lemma trailing_aligned l :
  bytes_to_bits l ++ op_bits (bytes_to_bits l) WTrail = bytes_to_bits (l ++ [128]).
Proof.
  rewrite bytes_to_bits_app. f_equal. cbn [op_bits]. unfold align_zeros.
  rewrite app_length, bytes_to_bits_length. cbn [length].
  replace (8 * length l + 1)%nat with (1 + length l * 8)%nat by lia.
  rewrite Nat.mod_add by lia. reflexivity.
Qed.

(* the bytes written are the emulation-prevented plain serialisation + trailing bits *)
Lemma writer_is_escape msgs :
  bytes_ok (ser msgs) = true ->
  write_sei_messages msgs = escape (rbsp_of msgs).
Proof.
  intros Hok. rewrite write_sei_messages_ser.
  pose proof (write_bytes_stream (ser msgs) winit [] WStream_init) as H1. cbn [app] in H1.
  pose proof (wstep_stream _ _ WTrail H1 eq_refl) as H2. cbn [wstep] in H2.
  rewrite trailing_aligned in H2.
  destruct (WStream_aligned _ _ H2) as [raw [Ho [Hb [Hlt _]]]].
  { rewrite bytes_to_bits_length. rewrite Nat.mul_comm. apply Nat.mod_mul. lia. }
  rewrite Ho. f_equal. unfold rbsp_of.
  apply bytes_to_bits_inj; [exact Hlt| |exact Hb].
  apply bytes_ok_Forall. rewrite bytes_ok_app, Hok. reflexivity.
Qed.

Lemma ser_bytes_ok msgs : msgs_ok msgs = true -> bytes_ok (ser msgs) = true.
Proof.
  induction msgs as [|m ms IH]; intros H; [reflexivity|].
  cbn [msgs_ok forallb] in H. apply andb_true_iff in H. destruct H as [Hm Hms].
  rewrite ser_cons, bytes_ok_app, (IH Hms), andb_true_r.
  unfold ser_msg. rewrite !bytes_ok_app, !ff_enc_bytes_ok. cbn [andb]. apply (msg_ok_inv m Hm).
Qed.

Section Wrap.
  Variable wrap : N -> N.
  Variable W : N.
  Hypothesis wrap_small : forall x, x < W -> wrap x = x.

  Lemma read_ff_spec : forall fuel v s acc rest,
    (N.to_nat (v / 255) < fuel)%nat ->
    RGood s -> rbits s = bytes_to_bits (ff_enc v) ++ rest -> acc + v < W ->
    exists s', read_ff fuel wrap s acc = Some (acc + v, s') /\ rbits s' = rest /\ RGood s' /\
               rdata s' = rdata s.
  Proof.
    induction fuel as [|f IH]; intros v s acc rest Hf HG Hb Hv; [lia|].
    cbn [read_ff].
    destruct (N.leb_spec 255 v) as [H|H].
    - rewrite ff_enc_ge in Hb by exact H.
      unfold bytes_to_bits in Hb. cbn [flat_map] in Hb. rewrite <- app_assoc in Hb.
      destruct (read_fixed s 8 255 _ HG ltac:(lia) ltac:(cbn; lia) Hb) as [s1 [Hr [Hb1 [HG1 Hd1]]]].
      rewrite Hr. cbn [N.eqb Pos.eqb]. rewrite wrap_small by lia.
      destruct (div255_step v H) as [E _].
      destruct (IH (v - 255) s1 (acc + 255) rest ltac:(lia) HG1 Hb1 ltac:(lia)) as [s' [Hr' [Hb' [HG' Hd']]]].
      exists s'. rewrite Hr'. split; [f_equal; f_equal; lia|]. split; [exact Hb'|]. split; [exact HG'|congruence].
    - rewrite ff_enc_lt in Hb by exact H.
      unfold bytes_to_bits in Hb. cbn [flat_map app] in Hb. rewrite app_nil_r in Hb.
      destruct (read_fixed s 8 v _ HG ltac:(lia) ltac:(cbn; lia) Hb) as [s1 [Hr [Hb1 [HG1 Hd1]]]].
      rewrite Hr. destruct (N.eqb_spec v 255) as [E|E]; [lia|].
      rewrite wrap_small by lia. exists s1. split; [reflexivity|]. split; [exact Hb1|]. split; [exact HG1|exact Hd1].
  Qed.
End Wrap.

Lemma bits_nonempty_more x :
  x <> [] ->
  match bytes_to_bits (x ++ [128]) with
  | [] => False
  | b :: t => negb b || existsb (fun y => y) t = true
  end.
Proof.
  destruct x as [|a x']; [congruence|]. intros _.
  change (bytes_to_bits ((a :: x') ++ [128]))
    with (N.testbit a (N.of_nat 7) :: (bits_of 7 a ++ bytes_to_bits (x' ++ [128]))).
  cbv beta iota. rewrite existsb_app, bytes_to_bits_app, existsb_app.
  replace (existsb (fun y => y) (bytes_to_bits [128])) with true by reflexivity.
  rewrite !orb_true_r. reflexivity.
Qed.

Lemma ff_len_le v rest n :
  (length (bytes_to_bits (ff_enc v) ++ rest) <= 8 * n + 7)%nat -> (N.to_nat (v / 255) < S n)%nat.
Proof.
  rewrite app_length, bytes_to_bits_length. unfold ff_enc. rewrite app_length, repeat_length.
  cbn [length]. lia.
Qed.

Lemma extract_loop_msgs : forall msgs f s,
  msgs <> [] -> msgs_ok msgs = true -> (length msgs <= f)%nat ->
  RGood s -> rbits s = bytes_to_bits (rbsp_of msgs) ->
  extract_loop f s = XOk (observed msgs).
Proof.
  induction msgs as [|m ms IH]; intros f s Hne Hok Hf HG Hb; [congruence|].
  cbn [msgs_ok forallb] in Hok. apply andb_true_iff in Hok. destruct Hok as [Hm Hms].
  destruct f as [|f]; [cbn [length] in Hf; lia|].
  destruct (msg_ok_inv m Hm) as (Ht & Hz & Hs & Hbytes).
  unfold rbsp_of in Hb. rewrite ser_cons in Hb. unfold ser_msg in Hb.
  rewrite <- !app_assoc in Hb. rewrite !bytes_to_bits_app in Hb.
  pose proof (rbits_length_le s (proj2 HG)) as Hlen.
  cbn [extract_loop].
  (* payload type *)
  destruct (read_ff_spec u64 (2 ^ 64) u64_small (S (length (rdata s))) (mtype m) s 0 _
              ltac:(rewrite Hb in Hlen; eapply ff_len_le; exact Hlen) HG Hb ltac:(cbn [N.add]; exact Ht))
    as [s1 [R1 [Hb1 [HG1 Hd1]]]].
  rewrite R1. cbn [N.add].
  (* payload size *)
  pose proof (rbits_length_le s1 (proj2 HG1)) as Hlen1. rewrite Hd1 in Hlen1.
  destruct (read_ff_spec u32 (2 ^ 32) u32_small (S (length (rdata s))) (msize m) s1 0 _
              ltac:(rewrite Hb1 in Hlen1; eapply ff_len_le; exact Hlen1) HG1 Hb1 ltac:(cbn [N.add]; exact Hz))
    as [s2 [R2 [Hb2 [HG2 Hd2]]]].
  rewrite R2. cbn [N.add].
  (* payload bytes *)
  pose proof (rbits_length_le s2 (proj2 HG2)) as Hlen2. rewrite Hd2, Hd1 in Hlen2.
  unfold read_payload. pose proof HG2 as [[He2 _] _]. rewrite He2.
  destruct (N.ltb_spec (lenN (rdata s2)) (msize m)) as [L|L].
  { exfalso. rewrite Hb2, app_length, bytes_to_bits_length in Hlen2.
    rewrite Hd2, Hd1 in L. unfold lenN in *. lia. }
  destruct (read_bytes_spec (N.to_nat (msize m)) s2 (mpayload m) _ HG2
              ltac:(rewrite Hs; unfold lenN; lia) ltac:(apply bytes_ok_Forall; exact Hbytes) Hb2)
    as [s3 [R3 [Hb3 [HG3 Hd3]]]].
  rewrite R3. pose proof HG3 as [[He3 _] _]. rewrite He3.
  rewrite <- bytes_to_bits_app in Hb3.
  (* more_rbsp_data *)
  pose proof (more_rbsp_data_spec s3 HG3) as HM. rewrite Hb3 in HM.
  destruct ms as [|m' ms'].
  - cbn [ser flat_map app] in HM. change (bytes_to_bits [128]) with
      [true; false; false; false; false; false; false; false] in HM.
    cbn [negb existsb orb] in HM. rewrite HM. reflexivity.
  - pose proof (bits_nonempty_more (ser (m' :: ms')) ltac:(apply ser_nonempty; discriminate)) as HN.
    destruct (bytes_to_bits (ser (m' :: ms') ++ [128])) as [|b t] eqn:Eb; [contradiction|].
    rewrite HN in HM. rewrite HM.
    rewrite (IH f s3); [reflexivity|discriminate|exact Hms|cbn [length] in *; lia|exact HG3|].
    rewrite Hb3. symmetry. exact Eb.
Qed.

Lemma list_roundtrip msgs :
  msgs <> [] -> msgs_ok msgs = true ->
  write_sei_messages msgs = escape (rbsp_of msgs) /\
  extract_sei_data (write_sei_messages msgs) = XOk (observed msgs).
Proof.
  intros Hne Hok.
  pose proof (writer_is_escape msgs (ser_bytes_ok msgs Hok)) as HW.
  split; [exact HW|]. rewrite HW. unfold extract_sei_data.
  assert (Hlt : Forall (fun b => b < 256) (escape (rbsp_of msgs))).
  { apply escape_lt256. apply bytes_ok_Forall. unfold rbsp_of.
    rewrite bytes_ok_app, (ser_bytes_ok msgs Hok). reflexivity. }
  assert (HG : RGood (rinit (escape (rbsp_of msgs)))).
  { split; [apply RInv_init; exact Hlt|cbn; lia]. }
  assert (Hb : rbits (rinit (escape (rbsp_of msgs))) = bytes_to_bits (rbsp_of msgs)).
  { rewrite rbits_init, unescape_escape. reflexivity. }
  apply extract_loop_msgs; try assumption.
  pose proof (rbits_length_le _ (proj2 HG)) as Hlen.
  rewrite Hb, bytes_to_bits_length in Hlen. cbn [rdata rinit] in Hlen.
  unfold rbsp_of in Hlen. rewrite app_length in Hlen.
  pose proof (length_ser_ge msgs). unfold rbsp_of. cbn [length] in Hlen. lia.
Qed.

Lemma writer_is_escape_ok msgs :
  msgs_ok msgs = true -> write_sei_messages msgs = escape (rbsp_of msgs).
Proof. intros H. apply writer_is_escape, ser_bytes_ok, H. Qed.

Lemma list_roundtrip_ebsp msgs :
  msgs <> [] -> msgs_ok msgs = true ->
  extract_sei_data (write_sei_messages msgs) = XOk (observed msgs).
Proof. intros H1 H2. apply list_roundtrip; assumption. Qed.
