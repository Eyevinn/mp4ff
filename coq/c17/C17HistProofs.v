(* C17HistProofs.v — the typed round trips lifted to a typed message VALUE however it was obtained
   (C17HistModel): the observables are a function of the exported field record, serialise + decode
   again is a no-op on canonical values, and the final value of ANY history round-trips, alone and
   inside an SEI NAL unit. *)
From V.lib Require Import Base.
From V.c17 Require Import C17Spec C17Model C17EbspProofs C17TypedModel C17TypedProofs C17FswProofs
  C17ComposeProofs C17HistModel.

Lemma typed_roundtrip t :
  typed_canonical t = true ->
  typed_decode_like t (typed_payload t) = Ok t /\ lenN (typed_payload t) = typed_size t.
Proof.
  destruct t as [cs|m|m|m]; cbn [typed_canonical typed_decode_like typed_payload typed_size]; intros H.
  - destruct (timecode_exec cs H) as (_ & D & L). rewrite D. split; [reflexivity|exact L].
  - destruct (pic_timing_exec m H) as (_ & D & L). rewrite D. split; [reflexivity|exact L].
  - destruct (mdcv_roundtrip m H) as (D & L). rewrite D. split; [reflexivity|exact L].
  - destruct (cll_roundtrip m H) as (D & L). rewrite D. split; [reflexivity|exact L].
Qed.

Lemma typed_msg_ok t : typed_canonical t = true -> msg_ok (typed_msg t) = true.
Proof.
  destruct typed_msgs_ok as (H1 & H2 & H3 & H4).
  destruct t as [cs|m|m|m]; unfold typed_msg; cbn [typed_canonical typed_type typed_size typed_payload]; intros H.
  - apply H1, H.
  - apply H2, H.
  - apply H3.
  - apply H4.
Qed.

(* the observables of a value depend on its exported field record and on nothing else: two values
   with equal field records, whatever histories produced them, serialise alike *)
Lemma payload_depends_on_fields o1 ss1 o2 ss2 t1 t2 :
  run_history o1 ss1 = Ok t1 -> run_history o2 ss2 = Ok t2 -> t1 = t2 ->
  typed_payload t1 = typed_payload t2 /\ typed_size t1 = typed_size t2 /\ typed_observe t1 = typed_observe t2.
Proof. intros _ _ ->. repeat split. Qed.

(* serialise + decode again in the middle of a history changes nothing on a canonical value *)
Lemma redecode_noop t ss :
  typed_canonical t = true -> run_steps (SRedecode :: ss) t = run_steps ss t.
Proof.
  intros H. cbn [run_steps]. destruct (typed_roundtrip t H) as [D _]. rewrite D. reflexivity.
Qed.

(* a canonical typed value between arbitrary other messages of an SEI NAL unit *)
Lemma typed_in_nalu t pre post :
  typed_canonical t = true -> msgs_ok pre = true -> msgs_ok post = true ->
  extract_sei_data (write_sei_messages (pre ++ typed_msg t :: post))
  = XOk (observed pre ++ (typed_type t, typed_payload t) :: observed post).
Proof.
  intros H Hpre Hpost. rewrite list_roundtrip_ebsp.
  - unfold observed. rewrite map_app. reflexivity.
  - intros E. apply app_eq_nil in E. destruct E as [_ E]. discriminate.
  - unfold msgs_ok. rewrite forallb_app. cbn [forallb].
    fold (msgs_ok pre). fold (msgs_ok post). rewrite Hpre, Hpost, (typed_msg_ok t H). reflexivity.
Qed.

(* THE typed round trip for any message value, however it was obtained: the final value t of any
   history (built or decoded, then any number of field edits, struct copies and re-decodes), if
   canonical, decodes from its own payload to itself, Size() is the payload length, and written
   alone into an SEI NAL unit it is extracted unchanged *)
Lemma history_roundtrip o ss t :
  run_history o ss = Ok t -> typed_canonical t = true ->
  typed_decode_like t (typed_payload t) = Ok t /\
  lenN (typed_payload t) = typed_size t /\
  extract_sei_data (write_sei_messages [typed_msg t]) = XOk [(typed_type t, typed_payload t)].
Proof.
  intros _ H. destruct (typed_roundtrip t H) as [D L]. split; [exact D|]. split; [exact L|].
  apply (typed_in_nalu t [] [] H); reflexivity.
Qed.

(* edits that keep the value canonical keep the whole history inside the theorem: by induction
   on the steps, every intermediate value is canonical and the re-decodes are no-ops *)
Definition step_keeps_canonical (s : step) : Prop :=
  match s with
  | SEdit f => forall t, typed_canonical t = true -> typed_canonical (f t) = true
  | _ => True
  end.

Fixpoint apply_edits (ss : list step) (t : typed) : typed :=
  match ss with
  | [] => t
  | SEdit f :: r => apply_edits r (f t)
  | _ :: r => apply_edits r t
  end.

Lemma canonical_history_steps ss : forall t,
  Forall step_keeps_canonical ss -> typed_canonical t = true ->
  run_steps ss t = Ok (apply_edits ss t) /\ typed_canonical (apply_edits ss t) = true.
Proof.
  induction ss as [|s r IH]; intros t HF H.
  - split; [reflexivity|exact H].
  - inversion HF as [|? ? Hs Hr]; subst.
    destruct s as [f| | |].
    + cbn [run_steps apply_edits]. apply IH; [exact Hr|]. apply Hs, H.
    + cbn [run_steps apply_edits]. apply IH; assumption.
    + cbn [run_steps apply_edits]. apply IH; assumption.
    + rewrite redecode_noop by exact H. cbn [apply_edits]. apply IH; assumption.
Qed.
