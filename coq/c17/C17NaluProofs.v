(* C17NaluProofs.v — the written NAL unit read back through avc.ParseSEINalu / hevc.ParseSEINalu
   (C17NaluModel): the wrappers run their decoders on exactly the written (type, payload) pairs, and
   every message in the domain (canonical typed message of that path, decoded pass-through message,
   general data) comes back as itself. *)
From V.lib Require Import Base.
From V.c17 Require Import C17Spec C17Model C17EbspProofs C17TypedModel C17TypedProofs C17FswProofs
  C17ComposeProofs C17HistModel C17HistProofs C17NaluModel.

Lemma parse_rest_written dec msgs :
  msgs <> [] -> msgs_ok msgs = true ->
  parse_rest dec (write_sei_messages msgs) = pres_of (decode_all dec (observed msgs)).
Proof.
  intros H1 H2. unfold parse_rest. rewrite (list_roundtrip_ebsp msgs H1 H2).
  destruct (decode_all dec (observed msgs)); reflexivity.
Qed.

Lemma nalu_written :
  (forall par h msgs, N.land h 31 = 6 -> msgs <> [] -> msgs_ok msgs = true ->
     parse_sei_nalu_avc par (h :: write_sei_messages msgs) = pres_of (decode_all (decode_avc par) (observed msgs))) /\
  (forall par h1 h2 msgs, (N.land (h1 / 2) 63 = 39 \/ N.land (h1 / 2) 63 = 40) -> msgs <> [] -> msgs_ok msgs = true ->
     parse_sei_nalu_hevc par (h1 :: h2 :: write_sei_messages msgs) = pres_of (decode_all (decode_hevc par) (observed msgs))).
Proof.
  split.
  - intros par h msgs Hh H1 H2. cbn [parse_sei_nalu_avc]. rewrite Hh. cbn [N.eqb Pos.eqb].
    apply parse_rest_written; assumption.
  - intros par h1 h2 msgs Hh H1 H2. cbn [parse_sei_nalu_hevc].
    replace ((N.land (h1 / 2) 63 =? 39) || (N.land (h1 / 2) 63 =? 40)) with true.
    + apply parse_rest_written; assumption.
    + destruct Hh as [-> | ->]; reflexivity.
Qed.

Definition sm_self (dec : N -> list N -> res sei_message) (m : sei_message) : Prop :=
  dec (sm_type m) (sm_payload m) = Ok m.

Lemma observed_sm ms : observed (map sm_msg ms) = map (fun m => (sm_type m, sm_payload m)) ms.
Proof. unfold observed. rewrite map_map. reflexivity. Qed.

Lemma decode_all_self dec ms :
  Forall (sm_self dec) ms -> decode_all dec (observed (map sm_msg ms)) = Ok ms.
Proof.
  rewrite observed_sm. induction 1 as [|m ms Hm _ IH]; [reflexivity|].
  cbn [map decode_all]. unfold sm_self in Hm. rewrite Hm. cbn [rbind]. rewrite IH. reflexivity.
Qed.

Lemma pt_decode_like h e tl pl : hrd_like h e = true -> pt_decode e tl pl = pt_decode h tl pl.
Proof.
  destruct h as [[a b i c d]|], e as [[a' b' i' c' d']|]; cbn [hrd_like]; try discriminate; [|reflexivity].
  cbn [h_init_len1 h_cpb_len1 h_dpb_len1]. intros H.
  apply andb_true_iff in H. destruct H as [H H3]. apply andb_true_iff in H. destruct H as [H1 H2].
  apply N.eqb_eq in H1, H2, H3. subst. reflexivity.
Qed.

Lemma registered_type pl p : decode_registered pl = Ok p -> pass_type p = 4 /\ ps_payload p = pl.
Proof.
  intros H. apply decode_registered_inv in H. destruct H as [-> [K|(f1 & f2 & K)]]; unfold pass_type; now rewrite K.
Qed.

Lemma unregistered_type pl p : decode_unregistered pl = Ok p -> pass_type p = 5 /\ ps_payload p = pl.
Proof. intros H. apply decode_unregistered_inv in H. destruct H as [-> K]. unfold pass_type. now rewrite K. Qed.

Lemma pic_timing_hevc_type par pl p : decode_pic_timing_hevc par pl = Ok p -> pass_type p = 1 /\ ps_payload p = pl.
Proof. intros H. apply decode_pic_timing_hevc_inv in H. destruct H as [-> K]. unfold pass_type. now rewrite K. Qed.

(* Size() of a pass-through message and of general data is the payload length *)
Lemma pass_msg_ok p : pass_ok p = true -> msg_ok (sm_msg (MPass p)) = true.
Proof.
  unfold pass_ok, msg_ok, sm_msg. cbn [mtype msize mpayload sm_type sm_size sm_payload]. unfold pass_size, pass_payload, pass_type.
  intros H. apply andb_true_iff in H. destruct H as [Hl Hb]. rewrite N.eqb_refl, Hl, Hb. now destruct (ps_kind p).
Qed.

Lemma raw_msg_ok ty pl : raw_ok ty pl = true -> msg_ok (sm_msg (MRaw ty pl)) = true.
Proof.
  unfold raw_ok, msg_ok, sm_msg. cbn [mtype msize mpayload sm_type sm_size sm_payload]. intros H.
  now rewrite N.eqb_refl, andb_true_r.
Qed.

Lemma eqb_ne a b : a <> b -> (a =? b) = false.
Proof. intros H. apply N.eqb_neq, H. Qed.

Lemma decode_avc_pt par pl :
  decode_avc par 1 pl = decode_pt_msg (fst (avc_ext par)) (snd (avc_ext par)) pl.
Proof. destruct par as [|vcl nal]; [reflexivity|]. cbn [decode_avc avc_ext N.eqb Pos.eqb]. destruct (avc_hrd vcl nal) as [[[c d] t]|]; reflexivity. Qed.

Lemma decode_avc_other par ty pl : ty <> 1 -> decode_avc par ty pl = decode_sei_message AVC ty pl.
Proof. intros H. destruct par as [|vcl nal]; [reflexivity|]. cbn [decode_avc]. rewrite (eqb_ne _ _ H). reflexivity. Qed.

Lemma wf_avc_self par m : sm_wf_avc par m -> sm_self (decode_avc par) m /\ msg_ok (sm_msg m) = true.
Proof.
  destruct m as [t|p|ty pl]; cbn [sm_wf_avc].
  - destruct t as [cs|pt|md|cl]; try contradiction. intros (Hc & Ht & Hh).
    split; [|apply (typed_msg_ok (TPicTiming pt)); exact Hc].
    unfold sm_self. cbn [sm_type sm_payload typed_type typed_payload]. rewrite decode_avc_pt.
    unfold decode_pt_msg. rewrite (pt_decode_like _ _ _ _ Hh), <- Ht.
    destruct (pic_timing_exec pt Hc) as (_ & D & _). rewrite D. reflexivity.
  - intros (Hok & pl & Hd). split; [|exact (pass_msg_ok p Hok)].
    unfold sm_self. cbn [sm_type sm_payload]. unfold pass_payload.
    destruct Hd as [Hd|Hd].
    + destruct (registered_type _ _ Hd) as [T P]. rewrite T, P.
      rewrite decode_avc_other by discriminate. cbn [decode_sei_message N.eqb Pos.eqb]. now rewrite Hd.
    + destruct (unregistered_type _ _ Hd) as [T P]. rewrite T, P.
      rewrite decode_avc_other by discriminate. cbn [decode_sei_message N.eqb Pos.eqb]. now rewrite Hd.
  - intros (Hok & N1 & N4 & N5). split; [|exact (raw_msg_ok ty pl Hok)].
    unfold sm_self. cbn [sm_type sm_payload]. rewrite decode_avc_other by exact N1.
    cbn [decode_sei_message]. now rewrite (eqb_ne _ _ N1), (eqb_ne _ _ N4), (eqb_ne _ _ N5).
Qed.

Lemma decode_hevc_other par ty pl : (ty <> 1 \/ par = HPNone) -> decode_hevc par ty pl = decode_sei_message HEVC ty pl.
Proof.
  intros [H | ->]; [|reflexivity]. destruct par as [|ffi hrd]; [reflexivity|].
  cbn [decode_hevc]. rewrite (eqb_ne _ _ H). reflexivity.
Qed.

Lemma wf_hevc_self par m : sm_wf_hevc par m -> sm_self (decode_hevc par) m /\ msg_ok (sm_msg m) = true.
Proof.
  destruct m as [t|p|ty pl]; cbn [sm_wf_hevc].
  - intros H. assert (Hc : typed_canonical t = true) by (destruct t; [exact H|contradiction|exact H|exact H]).
    split; [|apply (typed_msg_ok t); exact Hc].
    destruct (typed_roundtrip t Hc) as [D _].
    unfold sm_self. cbn [sm_type sm_payload].
    destruct t as [cs|pt|md|cl]; try contradiction;
      cbn [typed_type typed_payload typed_decode_like] in *;
      (rewrite decode_hevc_other by (left; discriminate));
      cbn [decode_sei_message N.eqb Pos.eqb lift_typed].
    + destruct (tc_decode (tc_payload cs)); cbn [rbind] in *; try discriminate. inversion D. reflexivity.
    + destruct (mdcv_decode (mdcv_payload md)); cbn [rbind] in *; try discriminate. inversion D. reflexivity.
    + destruct (cll_decode (cll_payload cl)); cbn [rbind] in *; try discriminate. inversion D. reflexivity.
  - intros (Hok & pl & Hd). split; [|exact (pass_msg_ok p Hok)].
    unfold sm_self. cbn [sm_type sm_payload]. unfold pass_payload.
    destruct Hd as [Hd|[Hd|(ffi & hrd & -> & Hd)]].
    + destruct (registered_type _ _ Hd) as [T P]. rewrite T, P.
      rewrite decode_hevc_other by (left; discriminate). cbn [decode_sei_message N.eqb Pos.eqb]. now rewrite Hd.
    + destruct (unregistered_type _ _ Hd) as [T P]. rewrite T, P.
      rewrite decode_hevc_other by (left; discriminate). cbn [decode_sei_message N.eqb Pos.eqb]. now rewrite Hd.
    + destruct (pic_timing_hevc_type _ _ _ Hd) as [T P]. rewrite T, P.
      cbn [decode_hevc N.eqb Pos.eqb]. now rewrite Hd.
  - intros (Hok & N1 & N4 & N5 & N136 & N137 & N144). split; [|exact (raw_msg_ok ty pl Hok)].
    unfold sm_self. cbn [sm_type sm_payload]. rewrite decode_hevc_other by exact N1.
    cbn [decode_sei_message].
    now rewrite (eqb_ne _ _ N4), (eqb_ne _ _ N5), (eqb_ne _ _ N136), (eqb_ne _ _ N137), (eqb_ne _ _ N144).
Qed.

Lemma wf_all {dec} {wf : sei_message -> Prop} (ms : list sei_message) :
  (forall m, wf m -> sm_self dec m /\ msg_ok (sm_msg m) = true) ->
  Forall wf ms -> Forall (sm_self dec) ms /\ msgs_ok (map sm_msg ms) = true.
Proof.
  intros Hw. induction 1 as [|m ms Hm _ [IH1 IH2]]; [split; [constructor|reflexivity]|].
  destruct (Hw m Hm) as [S O]. split; [constructor; assumption|].
  unfold msgs_ok in *. cbn [map forallb]. rewrite O, IH2. reflexivity.
Qed.

Lemma nalu_roundtrip :
  (forall par h ms, N.land h 31 = 6 -> ms <> [] -> Forall (sm_wf_avc par) ms ->
     parse_sei_nalu_avc par (h :: write_sei_messages (map sm_msg ms)) = POk ms) /\
  (forall par h1 h2 ms, (N.land (h1 / 2) 63 = 39 \/ N.land (h1 / 2) 63 = 40) -> ms <> [] -> Forall (sm_wf_hevc par) ms ->
     parse_sei_nalu_hevc par (h1 :: h2 :: write_sei_messages (map sm_msg ms)) = POk ms).
Proof.
  destruct nalu_written as [A H]. split.
  - intros par h ms Hh Hne Hwf.
    destruct (wf_all ms (wf_avc_self par) Hwf) as [Hs Hok].
    rewrite (A par h _ Hh); [|destruct ms; [contradiction|discriminate]|exact Hok].
    rewrite (decode_all_self _ _ Hs). reflexivity.
  - intros par h1 h2 ms Hh Hne Hwf.
    destruct (wf_all ms (wf_hevc_self par) Hwf) as [Hs Hok].
    rewrite (H par h1 h2 _ Hh); [|destruct ms; [contradiction|discriminate]|exact Hok].
    rewrite (decode_all_self _ _ Hs). reflexivity.
Qed.
