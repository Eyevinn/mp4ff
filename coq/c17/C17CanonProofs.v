(* C17CanonProofs.v — whatever a typed decoder returns is a CANONICAL value (every field within its
   coded width, every field the flags make absent zero, the clock count the one the header says):
   a message obtained from a decoder is inside the domain of the round-trip theorems, and stays
   there under canonical-preserving edits (C17HistProofs.canonical_history_steps). *)
From V.lib Require Import Base.
From V.c17 Require Import C17Spec C17Model C17TypedModel C17BitProofs C17HistModel C17HistProofs.

(* take the next read of a monadic decoder apart *)
Ltac next_rd H :=
  match type of H with
  | rbind ?r _ = Ok _ =>
      let E := fresh "E" in
      destruct r as [[? ?]| | |] eqn:E; cbn [rbind] in H; [|discriminate H ..]
  end.

Lemma rd_hms_canonical full l sf s mf m hf h l' :
  rd_hms full l = Ok ((sf, s, mf, m, hf, h), l') -> hms_canonical full sf s mf m hf h = true.
Proof.
  unfold rd_hms, hms_canonical. destruct full; intros H.
  - next_rd H. next_rd H. next_rd H. injection H as <- <- <- <- <- <- _.
    cbn [negb andb].
    rewrite (rd_ltb 6 64 _ _ _ eq_refl E).
    rewrite (rd_ltb 6 64 _ _ _ eq_refl E0).
    rewrite (rd_ltb 5 32 _ _ _ eq_refl E1). reflexivity.
  - next_rd H. destruct b.
    + next_rd H. next_rd H. destruct b.
      * next_rd H. next_rd H. destruct b.
        -- next_rd H. injection H as <- <- <- <- <- <- _.
           rewrite (rd_ltb 6 64 _ _ _ eq_refl E0).
           rewrite (rd_ltb 6 64 _ _ _ eq_refl E2).
           rewrite (rd_ltb 5 32 _ _ _ eq_refl E4). reflexivity.
        -- injection H as <- <- <- <- <- <- _.
           rewrite (rd_ltb 6 64 _ _ _ eq_refl E0).
           rewrite (rd_ltb 6 64 _ _ _ eq_refl E2). reflexivity.
      * injection H as <- <- <- <- <- <- _.
        rewrite (rd_ltb 6 64 _ _ _ eq_refl E0). reflexivity.
    + injection H as <- <- <- <- <- <- _. reflexivity.
Qed.

Lemma rd_clock_canonical l c l' : rd_clock l = Ok (c, l') -> clock_canonical c = true.
Proof.
  unfold rd_clock. intros H. next_rd H. destruct b.
  - do 7 next_rd H. destruct p as [[[[[sf s] mf] m] hf] h].
    pose proof (rd_hms_canonical _ _ _ _ _ _ _ _ _ E6) as Hh.
    next_rd H.
    pose proof (rd_ltb 5 32 _ _ _ eq_refl E1) as B1.
    pose proof (rd_ltb 9 512 _ _ _ eq_refl E5) as B5.
    pose proof (rd_ltb 5 32 _ _ _ eq_refl E7) as B7.
    destruct (0 <? n1) eqn:Z.
    + next_rd H. injection H as <- _. unfold clock_canonical.
      cbn [c_flag c_counting c_nframes c_full c_secflag c_seconds c_minflag c_minutes c_hrflag c_hours c_tolen c_toval].
      apply (rd_ltb _ (2 ^ n1)) in E8; [|now rewrite N2Nat.id].
      now rewrite Hh, B1, B5, B7, E8.
    + injection H as <- _. unfold clock_canonical.
      cbn [c_flag c_counting c_nframes c_full c_secflag c_seconds c_minflag c_minutes c_hrflag c_hours c_tolen c_toval].
      assert (n1 = 0) as -> by lia. now rewrite Hh, B1, B5.
  - injection H as <- _. reflexivity.
Qed.

Lemma rd_clocks_canonical k : forall l cs l',
  rd_clocks k l = Ok (cs, l') -> length cs = k /\ forallb clock_canonical cs = true.
Proof.
  induction k as [|k IH]; intros l cs l' H; cbn [rd_clocks] in H.
  - injection H as <- _. split; reflexivity.
  - next_rd H. next_rd H. injection H as <- _.
    destruct (IH _ _ _ E0) as [HL HC]. cbn [length forallb].
    rewrite (rd_clock_canonical _ _ _ E), HC, HL. split; reflexivity.
Qed.

Lemma tc_decode_canonical pl cs : tc_decode pl = Ok cs -> tc_canonical cs = true.
Proof.
  unfold tc_decode. intros H. next_rd H. next_rd H. injection H as <-.
  destruct (rd_clocks_canonical _ _ _ _ E0) as [HL HC].
  pose proof (rd_ltb 2 4 _ _ _ eq_refl E) as B.
  unfold tc_canonical. rewrite HC, andb_true_r. unfold lenN. lia.
Qed.

(* sign extension lands in the two's complement range; on abstract quantities (h = 2^(n-1)) *)
Lemma signed_range (v h : N) (bit : bool) :
  0 < h -> v < 2 * h -> bit = ((v / h) mod 2 =? 1) ->
  (- Z.of_N h <= (if bit then Z.of_N v - 2 * Z.of_N h else Z.of_N v) < Z.of_N h)%Z.
Proof.
  intros Hh Hv ->.
  assert (Q : v / h < 2) by (apply N.div_lt_upper_bound; lia).
  destruct (N.eq_dec (v / h) 1) as [E|E].
  - rewrite E. change (1 mod 2 =? 1) with true. cbv iota.
    assert (h <= v).
    { pose proof (N.mul_div_le v h ltac:(lia)) as M. rewrite E in M. lia. }
    lia.
  - assert (E0 : v / h = 0) by (revert Q E; generalize (v / h); intros q Q E; lia).
    rewrite E0. change (0 mod 2 =? 1) with false. cbv iota.
    apply N.div_small_iff in E0; lia.
Qed.

Lemma rd_signed_range n l z l' :
  (1 <= n)%nat -> rd_signed n l = Ok (z, l') ->
  (- 2 ^ (Z.of_nat n - 1) <= z < 2 ^ (Z.of_nat n - 1))%Z.
Proof.
  intros Hn H. unfold rd_signed in H. next_rd H. injection H as <- _.
  apply rd_lt in E.
  assert (Hh : Z.of_N (2 ^ N.of_nat (n - 1)) = (2 ^ (Z.of_nat n - 1))%Z).
  { rewrite N2Z.inj_pow, nat_N_Z. f_equal. lia. }
  assert (H2 : 2 ^ N.of_nat n = 2 * 2 ^ N.of_nat (n - 1)).
  { rewrite <- N.pow_succ_r'. f_equal. lia. }
  assert (HZ : (2 ^ Z.of_nat n = 2 * 2 ^ (Z.of_nat n - 1))%Z).
  { rewrite <- Z.pow_succ_r by lia. f_equal. lia. }
  rewrite HZ, <- Hh. rewrite H2 in E.
  apply signed_range; [|exact E|apply N.testbit_eqb].
  apply N.neq_0_lt_0. apply N.pow_nonzero. discriminate.
Qed.

Lemma rd_clock_avc_canonical tolen l c l' :
  tolen < 32 -> rd_clock_avc tolen l = Ok (c, l') -> clock_avc_canonical tolen c = true.
Proof.
  unfold rd_clock_avc. intros Ht H. next_rd H. destruct b.
  - do 8 next_rd H. destruct p as [[[[[sf s] mf] m] hf] h].
    pose proof (rd_hms_canonical _ _ _ _ _ _ _ _ _ E7) as Hh.
    pose proof (rd_ltb 2 4 _ _ _ eq_refl E0) as B0.
    pose proof (rd_ltb 5 32 _ _ _ eq_refl E2) as B2.
    pose proof (rd_ltb 8 256 _ _ _ eq_refl E6) as B6.
    destruct (0 <? tolen) eqn:Z.
    + next_rd H. injection H as <- _. unfold clock_avc_canonical.
      cbn [a_flag a_cttype a_counting a_nframes a_full a_secflag a_seconds a_minflag a_minutes a_hrflag a_hours a_tolen a_toval].
      rewrite Hh, Z, N.eqb_refl, B0, B2, B6.
      apply N.ltb_lt in Z.
      apply rd_signed_range in E8; [|lia]. rewrite N_nat_Z in E8. destruct E8 as [L U].
      rewrite (proj2 (Z.leb_le _ _) L), (proj2 (Z.ltb_lt _ _) U). reflexivity.
    + injection H as <- _. unfold clock_avc_canonical.
      cbn [a_flag a_cttype a_counting a_nframes a_full a_secflag a_seconds a_minflag a_minutes a_hrflag a_hours a_tolen a_toval].
      now rewrite Hh, Z, N.eqb_refl, B0, B2, B6.
  - injection H as <- _. unfold clock_avc_canonical, clock_avc_zero.
    cbn [a_flag a_cttype a_nuit a_counting a_nframes a_full a_disc a_dropped a_secflag a_seconds a_minflag a_minutes a_hrflag a_hours a_tolen a_toval].
    rewrite N.eqb_refl. reflexivity.
Qed.

Lemma rd_clocks_avc_canonical tolen k : forall l cs l',
  tolen < 32 -> rd_clocks_avc k tolen l = Ok (cs, l') ->
  length cs = k /\ forallb (clock_avc_canonical tolen) cs = true.
Proof.
  induction k as [|k IH]; intros l cs l' Ht H; cbn [rd_clocks_avc] in H.
  - injection H as <- _. split; reflexivity.
  - next_rd H. next_rd H. injection H as <- _.
    destruct (IH _ _ _ Ht E0) as [HL HC]. cbn [length forallb].
    rewrite (rd_clock_avc_canonical _ _ _ _ Ht E), HC, HL. split; reflexivity.
Qed.

(* the external parameters a decoder can be given: 5-bit length fields *)
Definition ext_ok (ext : option hrd_delay) (tolen : N) : bool :=
  (match ext with Some h => (h_cpb_len1 h <? 32) && (h_dpb_len1 h <? 32) | None => true end) && (tolen <? 32).

Lemma pt_decode_canonical ext tolen pl m :
  ext_ok ext tolen = true -> pt_decode ext tolen pl = Ok m -> pt_canonical m = true.
Proof.
  unfold ext_ok, pt_decode. intros Hx H.
  apply andb_true_iff in Hx. destruct Hx as [Hx Ht]. apply N.ltb_lt in Ht.
  next_rd H. next_rd H.
  destruct (num_clock_ts n) as [k|] eqn:K; [|discriminate].
  next_rd H. injection H as <-.
  destruct (rd_clocks_avc_canonical _ _ _ _ _ Ht E1) as [HL HC].
  unfold pt_canonical. cbn [p_hrd p_tolen p_pict p_clocks].
  rewrite K, HC, HL, Nat.eqb_refl, (proj2 (N.ltb_lt _ _) Ht), !andb_true_r.
  destruct ext as [h|].
  - apply andb_true_iff in Hx. destruct Hx as [H1 H2].
    next_rd E. next_rd E. injection E as <- _.
    unfold hrd_canonical. cbn [h_cpb_len1 h_dpb_len1 h_cpb_delay h_dpb_delay].
    apply (rd_ltb _ (2 ^ (h_cpb_len1 h + 1))) in E2; [|now rewrite N2Nat.id].
    apply (rd_ltb _ (2 ^ (h_dpb_len1 h + 1))) in E3; [|now rewrite N2Nat.id].
    now rewrite H1, H2, E2, E3.
  - injection E as <- _. reflexivity.
Qed.

Lemma be_val_lt l : forall acc B,
  bytes_ok l = true -> acc < B -> be_val l acc < B * 256 ^ N.of_nat (length l).
Proof.
  induction l as [|b t IH]; intros acc B Hb Ha.
  - cbn [be_val length]. change (N.of_nat 0) with 0. rewrite N.pow_0_r. lia.
  - rewrite bytes_ok_cons in Hb. apply andb_true_iff in Hb. destruct Hb as [Hb Ht].
    unfold byte_ok in Hb. apply N.ltb_lt in Hb.
    cbn [be_val length]. rewrite Nat2N.inj_succ, N.pow_succ_r'.
    pose proof (IH (acc * 256 + b) (B * 256) Ht ltac:(lia)) as P.
    replace (B * (256 * 256 ^ N.of_nat (length t))) with (B * 256 * 256 ^ N.of_nat (length t)) by ring.
    exact P.
Qed.

Lemma bytes_ok_skipn n l : bytes_ok l = true -> bytes_ok (skipn n l) = true.
Proof.
  intros H. rewrite <- (firstn_skipn n l), bytes_ok_app in H. apply andb_true_iff in H. apply H.
Qed.

(* a k-byte big-endian field read from a byte string *)
Lemma be_field_ltb k B l : bytes_ok l = true -> 256 ^ N.of_nat k = B -> (be_val (firstn k l) 0 <? B) = true.
Proof.
  intros Hb <-. apply N.ltb_lt.
  assert (Hf : bytes_ok (firstn k l) = true).
  { rewrite <- (firstn_skipn k l), bytes_ok_app in Hb. apply andb_true_iff in Hb. apply Hb. }
  pose proof (be_val_lt (firstn k l) 0 1 Hf ltac:(lia)) as P.
  rewrite N.mul_1_l in P. eapply N.lt_le_trans; [exact P|].
  apply N.pow_le_mono_r; [discriminate|]. rewrite firstn_length. lia.
Qed.

(* (`injection` would unfold the firstn / skipn of the fields into matches) *)
Lemma Ok_inj {A} (a b : A) : Ok a = Ok b -> a = b.
Proof. now intros [= ->]. Qed.

Lemma mdcv_decode_canonical pl m : bytes_ok pl = true -> mdcv_decode pl = Ok m -> mdcv_canonical m = true.
Proof.
  unfold mdcv_decode, rd_be. intros Hb H. destruct (negb (lenN pl =? mdcv_size)); [discriminate|].
  apply Ok_inj in H. subst m. unfold mdcv_canonical.
  cbn [md_x0 md_y0 md_x1 md_y1 md_x2 md_y2 md_wx md_wy md_max md_min].
  now rewrite !(be_field_ltb 2 65536), !(be_field_ltb 4 4294967296)
    by (try reflexivity; repeat apply bytes_ok_skipn; exact Hb).
Qed.

Lemma cll_decode_canonical pl m : bytes_ok pl = true -> cll_decode pl = Ok m -> cll_canonical m = true.
Proof.
  unfold cll_decode, rd_be. intros Hb H. destruct (negb (lenN pl =? cll_size)); [discriminate|].
  apply Ok_inj in H. subst m. unfold cll_canonical. cbn [cl_max cl_avg].
  now rewrite !(be_field_ltb 2 65536) by (try reflexivity; repeat apply bytes_ok_skipn; exact Hb).
Qed.

Definition like_ok (like : typed) : bool :=
  match like with
  | TPicTiming m => ext_ok (p_hrd m) (p_tolen m)
  | _ => true
  end.

Lemma decode_canonical like pl t :
  like_ok like = true -> bytes_ok pl = true ->
  typed_decode_like like pl = Ok t -> typed_canonical t = true.
Proof.
  intros Hl Hb H. destruct like as [cs|m|m|m]; cbn [typed_decode_like like_ok] in *.
  - destruct (tc_decode pl) as [cs'| | |] eqn:E; cbn [rbind] in H; try discriminate.
    injection H as <-. exact (tc_decode_canonical _ _ E).
  - destruct (pt_decode (p_hrd m) (p_tolen m) pl) as [m'| | |] eqn:E; cbn [rbind] in H; try discriminate.
    injection H as <-. exact (pt_decode_canonical _ _ _ _ Hl E).
  - destruct (mdcv_decode pl) as [m'| | |] eqn:E; cbn [rbind] in H; try discriminate.
    injection H as <-. exact (mdcv_decode_canonical _ _ Hb E).
  - destruct (cll_decode pl) as [m'| | |] eqn:E; cbn [rbind] in H; try discriminate.
    injection H as <-. exact (cll_decode_canonical _ _ Hb E).
Qed.

(* the multi-step history the property is about, start to end: a message obtained from a decoder
   (any payload bytes the decoder accepts), then any steps whose edits keep the value canonical
   (struct copies, calls of the serialiser and re-decodes in between): the history runs without error
   to the edits applied to the decoded value, and that final value round-trips *)
Lemma decoded_history_roundtrip like pl t0 ss :
  like_ok like = true -> bytes_ok pl = true -> typed_decode_like like pl = Ok t0 ->
  Forall step_keeps_canonical ss ->
  let t := apply_edits ss t0 in
  run_history (ODecode like pl) ss = Ok t /\ typed_canonical t = true /\
  typed_decode_like t (typed_payload t) = Ok t /\ lenN (typed_payload t) = typed_size t /\
  extract_sei_data (write_sei_messages [typed_msg t]) = XOk [(typed_type t, typed_payload t)].
Proof.
  intros Hl Hb Hd Hs t.
  pose proof (decode_canonical like pl t0 Hl Hb Hd) as H0.
  destruct (canonical_history_steps ss t0 Hs H0) as [Hr Hc]. fold t in Hr, Hc.
  assert (HR : run_history (ODecode like pl) ss = Ok t).
  { unfold run_history. cbn [run_origin]. rewrite Hd. cbn [rbind]. exact Hr. }
  split; [exact HR|]. split; [exact Hc|]. exact (history_roundtrip _ _ _ HR Hc).
Qed.
