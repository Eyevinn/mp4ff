(* C17BitProofs.v — bit-list facts used by the typed-message proofs: reading what was written,
   packing to bytes and cutting at the FixedSliceWriter capacity. *)
From V.lib Require Import Base.
From V.c13 Require Import C13Bits.
From V.c17 Require Import C17TypedModel.

Lemma firstn_app_len {A} (a b : list A) n : length a = n -> firstn n (a ++ b) = a.
Proof.
  intros <-. rewrite firstn_app, Nat.sub_diag, firstn_O, app_nil_r. apply firstn_all.
Qed.
Lemma skipn_app_len {A} (a b : list A) n : length a = n -> skipn n (a ++ b) = b.
Proof.
  intros <-. rewrite skipn_app, Nat.sub_diag, skipn_O, skipn_all. reflexivity.
Qed.

Lemma rd_bits n v B rest :
  2 ^ N.of_nat n = B -> v < B -> rd n (bits_of n v ++ rest) = Ok (v, rest).
Proof.
  intros HB Hv. subst B. unfold rd.
  rewrite app_length, bits_of_length.
  destruct (Nat.ltb_spec (n + length rest) n) as [L|L]; [lia|].
  rewrite firstn_app_len, skipn_app_len by apply bits_of_length.
  rewrite val_of_bits_of, N.mod_small by exact Hv. reflexivity.
Qed.

Lemma rd_bits_N w v rest :
  v < 2 ^ w -> rd (N.to_nat w) (bits_of (N.to_nat w) v ++ rest) = Ok (v, rest).
Proof. intros H. apply rd_bits with (B := 2 ^ w); [rewrite N2Nat.id; reflexivity|exact H]. Qed.

Lemma rd_flag_cons b rest : rd_flag (b :: rest) = Ok (b, rest).
Proof. reflexivity. Qed.

(* what a read returns fits the width read *)
Lemma rd_lt n l v l' : rd n l = Ok (v, l') -> v < 2 ^ N.of_nat n.
Proof.
  unfold rd. destruct (Nat.ltb_spec (length l) n) as [H|H]; [discriminate|].
  intros [= <- _]. pose proof (val_of_lt (firstn n l)) as B.
  rewrite firstn_length, Nat.min_l in B by exact H. exact B.
Qed.

Lemma rd_ltb n B l v l' : 2 ^ N.of_nat n = B -> rd n l = Ok (v, l') -> (v <? B) = true.
Proof. intros <- H. apply N.ltb_lt, (rd_lt _ _ _ _ H). Qed.

Lemma ops_bits_cons o t : ops_bits (o :: t) = op_bits o ++ ops_bits t.
Proof. reflexivity. Qed.
Lemma ops_bits_app a b : ops_bits (a ++ b) = ops_bits a ++ ops_bits b.
Proof. unfold ops_bits. apply flat_map_app. Qed.
Lemma ops_bits_nil : ops_bits [] = [].
Proof. reflexivity. Qed.

Lemma firstn_add {A} a b (l : list A) : firstn (a + b) l = firstn a l ++ firstn b (skipn a l).
Proof.
  revert l. induction a as [|a IH]; intros l; [reflexivity|].
  destruct l as [|x t]; [cbn [Nat.add firstn skipn]; rewrite firstn_nil; reflexivity|].
  cbn [Nat.add firstn skipn app]. rewrite IH. reflexivity.
Qed.

Lemma pack8_bits c : forall l,
  (8 * c <= length l)%nat ->
  bytes_to_bits (pack8 c l) = firstn (8 * c) l /\ length (pack8 c l) = c.
Proof.
  induction c as [|c IH]; intros l H.
  - split; reflexivity.
  - cbn [pack8]. destruct (IH (skipn 8 l)) as [IH1 IH2]; [rewrite skipn_length; lia|].
    split.
    + unfold bytes_to_bits in *. cbn [flat_map]. rewrite IH1.
      replace (8 * S c)%nat with (8 + 8 * c)%nat by lia. rewrite firstn_add. f_equal.
      assert (L : length (firstn 8 l) = 8%nat) by (rewrite firstn_length; lia).
      rewrite <- L at 1. apply bits_of_val_of.
    + cbn [length]. rewrite IH2. reflexivity.
Qed.

Lemma firstn_pack8 c : forall n l, (c <= n)%nat -> firstn c (pack8 n l) = pack8 c l.
Proof.
  induction c as [|c IH]; intros n l H; [reflexivity|].
  destruct n as [|n]; [lia|]. cbn [pack8 firstn]. rewrite IH by lia. reflexivity.
Qed.

Lemma firstn_pack c l :
  (8 * c <= length l)%nat ->
  bytes_to_bits (firstn c (pack l)) = firstn (8 * c) l /\ length (firstn c (pack l)) = c.
Proof.
  intros H. unfold pack. rewrite firstn_pack8.
  - apply pack8_bits. exact H.
  - apply Nat.div_le_lower_bound; lia.
Qed.

Lemma pad8_length l : length (pad8 l) = (8 * ((length l + 7) / 8))%nat.
Proof.
  unfold pad8. rewrite app_length, repeat_length.
  pose proof (Nat.div_mod (length l) 8 ltac:(lia)) as D.
  pose proof (Nat.mod_upper_bound (length l) 8 ltac:(lia)) as M.
  remember (length l / 8)%nat as q. remember (length l mod 8)%nat as r.
  rewrite D.
  destruct (Nat.eq_dec r 0) as [->|Hr].
  - replace ((8 - 0) mod 8)%nat with 0%nat by reflexivity.
    replace (8 * q + 0 + 7)%nat with (7 + q * 8)%nat by lia.
    rewrite Nat.div_add by lia. cbn. lia.
  - rewrite (Nat.mod_small (8 - r) 8) by lia.
    replace (8 * q + r + 7)%nat with ((r - 1) + (q + 1) * 8)%nat by lia.
    rewrite Nat.div_add by lia. rewrite (Nat.div_small (r - 1) 8) by lia. lia.
Qed.

(* the bytes returned by the FixedSliceWriter, read back as bits: the coded bits, then filler *)
Lemma spec_bytes_bits cap coded extra ops :
  ops_bits ops = coded ++ extra ->
  (length coded <= 8 * N.to_nat cap)%nat ->
  (8 * N.to_nat cap <= 8 * ((length coded + length extra + 7) / 8))%nat ->
  lenN (spec_bytes cap ops) = cap /\
  exists tail, bytes_to_bits (spec_bytes cap ops) = coded ++ tail.
Proof.
  intros Hops Hlo Hhi. unfold spec_bytes.
  assert (HL : (8 * N.to_nat cap <= length (pad8 (ops_bits ops)))%nat).
  { rewrite pad8_length, Hops, app_length. exact Hhi. }
  destruct (firstn_pack (N.to_nat cap) (pad8 (ops_bits ops)) HL) as [Hb Hl].
  split; [unfold lenN; rewrite Hl; lia|].
  rewrite Hb. unfold pad8. rewrite Hops, <- app_assoc.
  rewrite firstn_app. rewrite (firstn_all2 (n := (8 * N.to_nat cap)%nat) coded) by exact Hlo.
  eexists. reflexivity.
Qed.

Lemma div8_bounds n : n <= 8 * ((n + 7) / 8) /\ 8 * ((n + 7) / 8) <= n + 7.
Proof.
  pose proof (N.div_mod (n + 7) 8 ltac:(lia)). pose proof (N.mod_lt (n + 7) 8 ltac:(lia)). lia.
Qed.

Lemma nat_div8 n : (8 * N.to_nat (n / 8) = 8 * (N.to_nat n / 8))%nat.
Proof.
  f_equal. rewrite <- (N2Nat.id n) at 1. change 8 with (N.of_nat 8).
  rewrite <- Nat2N.inj_div, Nat2N.id. reflexivity.
Qed.

(* Size() of the typed messages is the byte count of the n coded bits (anything written after them,
   like the final 1 bit of the time code, falls into the same last byte or is cut off) *)
Lemma spec_bytes_ceil n coded extra ops :
  ops_bits ops = coded ++ extra -> lenN coded = n ->
  lenN (spec_bytes ((n + 7) / 8) ops) = (n + 7) / 8 /\
  exists tail, bytes_to_bits (spec_bytes ((n + 7) / 8) ops) = coded ++ tail.
Proof.
  intros Hops Hlen. pose proof (div8_bounds n) as [B1 B2]. unfold lenN in Hlen.
  apply (spec_bytes_bits _ coded extra ops Hops); [lia|].
  rewrite nat_div8. apply Nat.mul_le_mono_l, Nat.div_le_mono; lia.
Qed.

Lemma rd_be_app a rest k : length a = k -> rd_be k (a ++ rest) = (be_val a 0, rest).
Proof. intros H. unfold rd_be. now rewrite firstn_app_len, skipn_app_len by exact H. Qed.

Lemma rd_be16 v rest : v < 65536 -> rd_be 2 (be16 v ++ rest) = (v, rest).
Proof. intros H. rewrite rd_be_app by reflexivity. unfold be16. cbn [be_val]. f_equal. lia. Qed.

Lemma rd_be32 v rest : v < 4294967296 -> rd_be 4 (be32 v ++ rest) = (v, rest).
Proof. intros H. rewrite rd_be_app by reflexivity. unfold be32. cbn [be_val]. f_equal. lia. Qed.

(* reading a field wider than its value: the low bits *)
Lemma rd_bits_mod n v rest :
  rd n (bits_of n v ++ rest) = Ok (v mod 2 ^ N.of_nat n, rest).
Proof.
  rewrite <- (bits_of_mod n v).
  apply rd_bits with (B := 2 ^ N.of_nat n); [reflexivity|].
  apply N.mod_lt. apply N.pow_nonzero. lia.
Qed.

(* ReadSigned(n) of the n low bits of uint(z) gives z back, for z in the two's complement range.
   The arithmetic is split into small lemmas on abstract quantities: a `lia` with the 64-bit constant of
   z_to_u64 in its context produces a certificate that is very slow to check. *)
Lemma pow2_half n : (1 <= n)%nat -> (2 ^ Z.of_nat n = 2 * 2 ^ (Z.of_nat n - 1))%Z.
Proof. intros H. rewrite <- Z.pow_succ_r by lia. f_equal. lia. Qed.

Lemma of_N_pow2_pred n : (1 <= n)%nat -> Z.of_N (2 ^ N.of_nat (n - 1)) = (2 ^ (Z.of_nat n - 1))%Z.
Proof. intros H. rewrite N2Z.inj_pow, nat_N_Z. f_equal. lia. Qed.

(* the n low bits of uint(z) (two's complement in 64 bits) are z mod 2^n *)
Lemma u64_low_bits n z :
  (n <= 64)%nat -> Z.of_N (z_to_u64 z mod 2 ^ N.of_nat n) = (z mod 2 ^ Z.of_nat n)%Z.
Proof.
  intros Hn. unfold z_to_u64. rewrite N2Z.inj_mod, N2Z.inj_pow, nat_N_Z.
  rewrite Z2N.id by (apply Z.mod_pos_bound; apply Z.pow_pos_nonneg; lia).
  change (Z.of_N 2) with 2%Z.
  symmetry. apply Znumtheory.Zmod_div_mod.
  - apply Z.pow_pos_nonneg; lia.
  - apply Z.pow_pos_nonneg; lia.
  - exists (2 ^ (64 - Z.of_nat n))%Z.
    rewrite <- Z.pow_add_r by lia. f_equal. lia.
Qed.

(* sign extension on abstract quantities: no power, no 64-bit constant in sight *)
Lemma signed_core (v h : N) (z P : Z) :
  (0 < P)%Z -> Z.of_N v = (z mod (2 * P))%Z -> Z.of_N h = P -> (- P <= z < P)%Z ->
  (if (v / h) mod 2 =? 1 then (Z.of_N v - 2 * P)%Z else Z.of_N v) = z.
Proof.
  intros HP Hv Hh Hz.
  destruct (Z_lt_le_dec z 0) as [Hneg|Hpos].
  - assert (E : (z mod (2 * P) = z + 2 * P)%Z).
    { rewrite <- (Z_mod_plus_full z 1 (2 * P)). rewrite Z.mul_1_l. apply Z.mod_small. lia. }
    rewrite E in Hv. clear E.
    assert (D : v / h = 1).
    { symmetry. apply (N.div_unique v _ 1 (v - h)); lia. }
    rewrite D. change (1 mod 2 =? 1) with true. cbv iota. lia.
  - assert (E : (z mod (2 * P) = z)%Z) by (apply Z.mod_small; lia).
    rewrite E in Hv. clear E.
    assert (D : v / h = 0) by (apply N.div_small; lia).
    rewrite D. change (0 mod 2 =? 1) with false. cbv iota. lia.
Qed.

Lemma rd_signed_bits n z rest :
  (1 <= n <= 64)%nat ->
  (- 2 ^ (Z.of_nat n - 1) <= z < 2 ^ (Z.of_nat n - 1))%Z ->
  rd_signed n (bits_of n (z_to_u64 z) ++ rest) = Ok (z, rest).
Proof.
  intros Hn Hz. unfold rd_signed. rewrite rd_bits_mod. cbn [rbind].
  rewrite N.testbit_eqb.
  pose proof (u64_low_bits n z (proj2 Hn)) as Hv.
  pose proof (of_N_pow2_pred n (proj1 Hn)) as Hh.
  rewrite (pow2_half n (proj1 Hn)) in *.
  assert (HP : (0 < 2 ^ (Z.of_nat n - 1))%Z) by (apply Z.pow_pos_nonneg; lia).
  f_equal. f_equal.
  exact (signed_core _ _ _ _ HP Hv Hh Hz).
Qed.
