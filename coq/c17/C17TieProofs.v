(* C17TieProofs.v — the bit-list reading of bits.Reader used by the typed SEI decoders of
   C17TypedModel (first failed read = Err) is tied, by proof, to the Go-level reader machine of
   C13Model (read_plain: value/n/pos accumulator over the byte slice, ACCUMULATED error: later reads
   return 0 and the decoder runs on): the machine-level transcriptions of C17TieModel compute, on
   every byte string, exactly what the bit-list decoders compute.
     Agree m b : from related states the machine computation m and the bit-list computation b return
                 the same value and stay related, or b fails and m ends with the error flag set;
     Keeps m   : once the error flag is set, m leaves it set;
     Tied m b  : both.  It is closed under sequencing; the primitives come from
                 C13PlainProofs.read_plain_prefix and the EOF lemma below. *)
From V.lib Require Import Base.
From V.c13 Require Import C13Model C13Bits C13ReaderProofs C13PlainProofs.
From V.c17 Require Import C17TypedModel C17TieModel C17RbspProofs C17BitProofs C17TypedProofs C17CanonProofs C17FswProofs C17ComposeProofs.

(* the machine runs out of data exactly when the bit list is too short *)
Lemma fill_plain_fail fuel : forall s n,
  RInv s -> n <= 56 -> N.of_nat (length (pbits s)) < n -> n <= rn s + 8 * N.of_nat fuel ->
  rerr (fill false fuel s n) = true.
Proof.
  induction fuel as [|f IH]; intros s n HI Hn Hlen Hfuel.
  - exfalso. unfold pbits in Hlen. rewrite app_length, bits_of_length in Hlen. lia.
  - cbn [fill].
    assert (Hrn : rn s < n).
    { unfold pbits in Hlen. rewrite app_length, bits_of_length in Hlen. lia. }
    destruct (N.ltb_spec (rn s) n) as [_|Hge]; [|lia].
    destruct HI as [He [Hv Hd]]. unfold byte_at. cbn [andb].
    destruct (nth_error (rdata s) (N.to_nat (rpos s))) as [b|] eqn:Eb; [|reflexivity].
    pose proof (nth_error_skipn _ _ _ Eb) as Hsk.
    pose proof (nth_error_Forall _ _ _ _ Hd Eb) as Hb256.
    set (s2 := mkR (rn s + 8) (N.lor (u64 (N.shiftl (rv s) 8)) b) (rpos s + 1)
                   (if b =? 0 then rzc s + 1 else 0) false (rdata s)).
    assert (Hb2 : pbits s2 = pbits s).
    { unfold pbits, s2. cbn [rn rv rpos rdata]. rewrite Hsk.
      replace (N.to_nat (rpos s + 1)) with (S (N.to_nat (rpos s))) by lia.
      replace (N.to_nat (rn s + 8)) with (N.to_nat (rn s) + 8)%nat by lia.
      rewrite acc_shift_bits by (try exact Hb256; lia).
      unfold bytes_to_bits. cbn [flat_map]. rewrite <- app_assoc. reflexivity. }
    apply IH; [|exact Hn|rewrite Hb2; exact Hlen|unfold s2; cbn [rn]; lia].
    unfold RInv, s2. cbn [rerr rv rn rdata]. repeat split; [|exact Hd].
    apply acc_shift_lt; [lia|exact Hv|exact Hb256].
Qed.

Lemma read_plain_fail s n :
  RGood s -> n <= 56 -> N.of_nat (length (pbits s)) < n ->
  fst (read_plain s n) = 0 /\ rerr (snd (read_plain s n)) = true.
Proof.
  intros [HI Hn8] Hn Hlen. unfold read_plain, read_gen. destruct HI as [He [Hv Hd]]. rewrite He.
  assert (Hf : rerr (fill false (S (N.to_nat (n / 8) + 1)) s n) = true).
  { apply fill_plain_fail; [exact (conj He (conj Hv Hd))|exact Hn|exact Hlen|].
    pose proof (N.div_mod n 8 ltac:(lia)). pose proof (N.mod_lt n 8 ltac:(lia)). lia. }
  rewrite Hf. split; [reflexivity|exact Hf].
Qed.

Lemma read_plain_err s n : rerr s = true -> read_plain s n = (0, s).
Proof. intros H. unfold read_plain, read_gen. rewrite H. reflexivity. Qed.

Definition Sim (s : rstate) (l : list bool) : Prop := RGood s /\ pbits s = l.

Lemma Sim_noerr s l : Sim s l -> rerr s = false.
Proof. intros [[[H _] _] _]. exact H. Qed.

Lemma Sim_init data : bytes_ok data = true -> Sim (rinit data) (bytes_to_bits data).
Proof.
  intros Hb. split.
  - split; [|cbn [rinit rn]; lia]. unfold RInv, rinit. cbn [rerr rv rn rdata].
    split; [reflexivity|]. split; [reflexivity|].
    unfold bytes_ok in Hb. rewrite forallb_forall in Hb. apply Forall_forall. intros x Hx.
    specialize (Hb x Hx). unfold byte_ok in Hb. unfold lt256. lia.
  - reflexivity.
Qed.

Definition Agree {A} (m : gm A) (b : list bool -> res (A * list bool)) : Prop :=
  forall s l, Sim s l ->
    match b l with
    | Ok (a, l') => fst (m s) = a /\ Sim (snd (m s)) l'
    | Err => rerr (snd (m s)) = true
    | _ => False
    end.

Definition Keeps {A} (m : gm A) : Prop := forall s, rerr s = true -> rerr (snd (m s)) = true.

(* a machine computation tied to a bit-list computation: the two agree, and the machine keeps its error *)
Definition Tied {A} (m : gm A) (b : list bool -> res (A * list bool)) : Prop := Agree m b /\ Keeps m.

Lemma Tied_ret {A} (a : A) : Tied (gret a) (fun l => Ok (a, l)).
Proof. split; [intros s l H; split; [reflexivity|exact H]|intros s H; exact H]. Qed.

Lemma Keeps_bind {A B} (m : gm A) (k : A -> gm B) :
  Keeps m -> (forall a, Keeps (k a)) -> Keeps (gbind m k).
Proof.
  intros Hm Hk s H. unfold gbind. specialize (Hm s H). destruct (m s) as [a s1]. apply Hk. exact Hm.
Qed.

(* sequencing; P is what is known of a value the bit-list computation returned (a width just read).  After
   a failed read the machine goes on with whatever value it has, hence `Keeps (k a)` for every a *)
Lemma Tied_bind_P {A B} (P : A -> Prop) (m : gm A) (k : A -> gm B) b kb :
  Tied m b -> (forall l a l', b l = Ok (a, l') -> P a) ->
  (forall a, P a -> Agree (k a) (fun l' => kb (a, l'))) -> (forall a, Keeps (k a)) ->
  Tied (gbind m k) (fun l => rbind (b l) kb).
Proof.
  intros [Hm Hmk] HP Hk Hkeep. split; [|now apply Keeps_bind].
  intros s l HS. specialize (Hm s l HS). unfold gbind.
  destruct (b l) as [[a l']| | |] eqn:E; cbn [rbind]; try contradiction.
  - destruct (m s) as [a0 s1]. cbn [fst snd] in Hm. destruct Hm as [-> HS1].
    exact (Hk a (HP _ _ _ E) s1 l' HS1).
  - destruct (m s) as [a0 s1]. cbn [snd] in Hm. apply Hkeep. exact Hm.
Qed.

Lemma Tied_bind {A B} (m : gm A) (k : A -> gm B) b kb :
  Tied m b -> (forall a, Tied (k a) (fun l' => kb (a, l'))) -> Tied (gbind m k) (fun l => rbind (b l) kb).
Proof.
  intros Hm Hk. apply (Tied_bind_P (fun _ => True)); [exact Hm|auto|intros a _; apply Hk|intros a; apply Hk].
Qed.

Lemma Keeps_rd conv n : Keeps (g_rd conv n).
Proof. intros s H. unfold g_rd. rewrite read_plain_err by exact H. exact H. Qed.

Lemma read_agree n s l :
  n <= 56 -> Sim s l ->
  match rd (N.to_nat n) l with
  | Ok (v, l') => read_plain s n = (v, snd (read_plain s n)) /\ Sim (snd (read_plain s n)) l' /\ v < 2 ^ n
  | Err => fst (read_plain s n) = 0 /\ rerr (snd (read_plain s n)) = true
  | _ => False
  end.
Proof.
  intros Hn [HG Hb]. destruct (rd (N.to_nat n) l) as [[v l']| | |] eqn:E.
  - pose proof (rd_lt _ _ _ _ E) as Hv. rewrite N2Nat.id in Hv.
    unfold rd in E. destruct (Nat.ltb_spec (length l) (N.to_nat n)) as [L|L]; [discriminate|].
    injection E as <- <-.
    destruct (read_plain_prefix s n (firstn (N.to_nat n) l) (skipn (N.to_nat n) l) HG Hn
                ltac:(rewrite Hb; symmetry; apply firstn_skipn)
                ltac:(rewrite firstn_length; lia)) as [s' [Hr [Hb' [HG' _]]]].
    rewrite Hr. cbn [snd]. split; [reflexivity|]. split; [split; assumption|exact Hv].
  - unfold rd in E. destruct (Nat.ltb_spec (length l) (N.to_nat n)) as [L|L]; [|discriminate].
    apply read_plain_fail; [exact HG|exact Hn|rewrite Hb; lia].
  - unfold rd in E. destruct (length l <? N.to_nat n)%nat; discriminate.
  - unfold rd in E. destruct (length l <? N.to_nat n)%nat; discriminate.
Qed.

(* conv(br.Read(n)) for a conversion that keeps n-bit values *)
Lemma Tied_rd conv n k :
  n <= 56 -> N.to_nat n = k -> (forall v, v < 2 ^ n -> conv v = v) -> Tied (g_rd conv n) (rd k).
Proof.
  intros Hn <- Hc. split; [|apply Keeps_rd].
  intros s l HS. pose proof (read_agree n s l Hn HS) as H. unfold g_rd.
  destruct (rd (N.to_nat n) l) as [[v l']| | |]; try contradiction.
  - destruct H as [Hr [HS' Hv]]. rewrite Hr. cbn [fst snd]. split; [apply Hc, Hv|exact HS'].
  - destruct H as [_ He]. destruct (read_plain s n) as [v s1]. exact He.
Qed.

Lemma rd_flag_as_rd l : rd_flag l = do (v, l') <- rd 1 l; Ok (v =? 1, l').
Proof.
  destruct l as [|b t]; [reflexivity|]. unfold rd_flag, rd. cbn [length Nat.ltb Nat.leb firstn skipn rbind val_of].
  destruct b; reflexivity.
Qed.

Lemma Tied_flag : Tied g_flag rd_flag.
Proof.
  split; [|intros s H; unfold g_flag; rewrite read_plain_err by exact H; exact H].
  intros s l HS. rewrite rd_flag_as_rd. pose proof (read_agree 1 s l ltac:(lia) HS) as H.
  change (N.to_nat 1) with 1%nat in H. unfold g_flag.
  destruct (rd 1 l) as [[v l']| | |]; cbn [rbind]; try contradiction.
  - destruct H as [Hr [HS' _]]. rewrite Hr. cbn [fst snd]. rewrite (Sim_noerr _ _ HS'). split; [reflexivity|exact HS'].
  - destruct H as [_ He]. destruct (read_plain s 1) as [v s1]. exact He.
Qed.

Lemma Tied_signed n k : 1 <= n <= 56 -> N.to_nat n = k -> Tied (g_signed n) (rd_signed k).
Proof.
  intros Hn <-. split; [|intros s H; unfold g_signed, read_signed_plain; rewrite read_plain_err by exact H; exact H].
  intros s l HS. pose proof (read_agree n s l ltac:(lia) HS) as H.
  unfold g_signed, read_signed_plain, rd_signed.
  destruct (rd (N.to_nat n) l) as [[v l']| | |]; cbn [rbind]; try contradiction.
  - destruct H as [Hr [HS' _]]. rewrite Hr. cbn [fst snd]. split; [|exact HS'].
    replace (N.of_nat (N.to_nat n - 1)) with (n - 1) by lia. rewrite N_nat_Z. reflexivity.
  - destruct H as [_ He]. destruct (read_plain s n) as [v s1]. exact He.
Qed.

Lemma mod_pow2_small w n v : n <= w -> v < 2 ^ n -> v mod 2 ^ w = v.
Proof.
  intros Hn Hv. apply N.mod_small. eapply N.lt_le_trans; [exact Hv|].
  apply N.pow_le_mono_r; [discriminate|exact Hn].
Qed.
Lemma u8_small n v : n <= 8 -> v < 2 ^ n -> u8 v = v.
Proof. apply (mod_pow2_small 8). Qed.
Lemma cu16_small n v : n <= 16 -> v < 2 ^ n -> cu16 v = v.
Proof. apply (mod_pow2_small 16). Qed.
Lemma cu32_small n v : n <= 32 -> v < 2 ^ n -> cu32 v = v.
Proof. apply (mod_pow2_small 32). Qed.

(* uint8(br.Read(w)), w <= 8 *)
Ltac rd8 w := apply Tied_rd; [lia|reflexivity|intros ? ?; apply (u8_small w); [lia|assumption]].
(* one statement: the machine side and the bit-list side read the same thing (T proves it); go on with the
   value read *)
Tactic Notation "step" tactic3(T) "as" simple_intropattern(x) := eapply Tied_bind; [T|intros x; cbn beta iota].
Ltac step_with T := step T as ?.

Lemma Tied_hms full : Tied (g_hms full) (rd_hms full).
Proof.
  unfold g_hms, rd_hms. destruct full.
  - step_with ltac:(rd8 6). step_with ltac:(rd8 6). step_with ltac:(rd8 5). apply Tied_ret.
  - step (apply Tied_flag) as [|]; [|apply Tied_ret].
    step_with ltac:(rd8 6). step (apply Tied_flag) as [|]; [|apply Tied_ret].
    step_with ltac:(rd8 6). step (apply Tied_flag) as [|]; [|apply Tied_ret].
    step_with ltac:(rd8 5). apply Tied_ret.
Qed.

Lemma Tied_clock : Tied g_clock rd_clock.
Proof.
  unfold g_clock, rd_clock.
  step (apply Tied_flag) as [|]; [|apply Tied_ret].
  step_with ltac:(apply Tied_flag).
  step_with ltac:(rd8 5).
  step_with ltac:(apply Tied_flag).
  step_with ltac:(apply Tied_flag).
  step_with ltac:(apply Tied_flag).
  step_with ltac:(apply Tied_rd; [lia|reflexivity|intros ? ?; apply (cu16_small 9); [lia|assumption]]).
  step (apply Tied_hms) as [[[[[sf s] mf] m] hf] h].
  (* the time-offset length just read is below 32: the next read is at most 31 bits wide *)
  apply (Tied_bind_P (fun tl => tl < 32)).
  - rd8 5.
  - intros l tl l' E. apply N.ltb_lt, (rd_ltb 5 32 _ _ _ eq_refl E).
  - intros tl Htl. cbn beta iota. destruct (0 <? tl); [|apply Tied_ret].
    step_with ltac:(apply Tied_rd; [lia|reflexivity|intros ? ?; apply (cu32_small tl); [lia|assumption]]).
    apply Tied_ret.
  - intros tl. destruct (0 <? tl); [|apply Tied_ret].
    apply Keeps_bind; [apply Keeps_rd|intros tv; apply Tied_ret].
Qed.

Lemma Tied_clocks k : Tied (g_clocks k) (rd_clocks k).
Proof.
  induction k as [|k IH]; cbn [g_clocks rd_clocks]; [apply Tied_ret|].
  step (apply Tied_clock) as c. step (exact IH) as cs. apply Tied_ret.
Qed.

(* what a decoder makes of a finished computation: the value if the error flag is clear *)
Lemma finish_agree {A B} (m : gm A) b (f : A -> B) s l :
  Agree m b -> Sim s l ->
  (let '(a, s') := m s in if rerr s' then Err else Ok (f a)) = (do (a, _) <- b l; Ok (f a)).
Proof.
  intros HA HS. specialize (HA s l HS).
  destruct (b l) as [[a l']| | |]; cbn [rbind]; try contradiction.
  - destruct (m s) as [a0 s1]. cbn [fst snd] in HA. destruct HA as [-> HS1].
    rewrite (Sim_noerr _ _ HS1). reflexivity.
  - destruct (m s) as [a0 s1]. cbn [snd] in HA. rewrite HA. reflexivity.
Qed.

Lemma Tied_tc :
  Tied (gbind (g_rd cuint 2) (fun k => g_clocks (N.to_nat k)))
       (fun l => do (k, l1) <- rd 2 l; rd_clocks (N.to_nat k) l1).
Proof. step (apply Tied_rd; [lia|reflexivity|reflexivity]) as k. apply Tied_clocks. Qed.

Lemma tc_decode_tie payload : bytes_ok payload = true -> tc_decode_go payload = tc_decode payload.
Proof.
  intros Hb. unfold tc_decode_go, tc_decode.
  rewrite (finish_agree _ _ (fun cs => cs) _ _ (proj1 Tied_tc) (Sim_init payload Hb)).
  destruct (rd 2 (bytes_to_bits payload)) as [[k l1]| | |]; cbn [rbind]; try reflexivity.
Qed.

Lemma Tied_clock_avc tolen : tolen < 32 -> Tied (g_clock_avc tolen) (rd_clock_avc tolen).
Proof.
  intros Ht. unfold g_clock_avc, rd_clock_avc.
  step (apply Tied_flag) as [|]; [|apply Tied_ret].
  step_with ltac:(rd8 2).
  step_with ltac:(apply Tied_flag).
  step_with ltac:(rd8 5).
  step_with ltac:(apply Tied_flag).
  step_with ltac:(apply Tied_flag).
  step_with ltac:(apply Tied_flag).
  step_with ltac:(rd8 8).
  step (apply Tied_hms) as [[[[[sf s] mf] m] hf] h].
  destruct (0 <? tolen) eqn:Z; [|apply Tied_ret].
  step_with ltac:(apply Tied_signed; [lia|reflexivity]). apply Tied_ret.
Qed.

Lemma Tied_clocks_avc tolen k : tolen < 32 -> Tied (g_clocks_avc k tolen) (rd_clocks_avc k tolen).
Proof.
  intros Ht. induction k as [|k IH]; cbn [g_clocks_avc rd_clocks_avc]; [apply Tied_ret|].
  step (apply Tied_clock_avc; exact Ht) as c. step (exact IH) as cs. apply Tied_ret.
Qed.

(* the head of the picture timing message: optional HRD delays, pict_struct *)
Definition hrd_bits (ext : option hrd_delay) (l : list bool) : res (option hrd_delay * list bool) :=
  match ext with
  | Some h =>
      do (cpb, la) <- rd (N.to_nat (h_cpb_len1 h + 1)) l;
      do (dpb, lb) <- rd (N.to_nat (h_dpb_len1 h + 1)) la;
      Ok (Some (mkHrd cpb dpb (h_init_len1 h) (h_cpb_len1 h) (h_dpb_len1 h)), lb)
  | None => Ok (None, l)
  end.

Definition pt_head_bits (ext : option hrd_delay) (l : list bool) : res ((option hrd_delay * N) * list bool) :=
  do (hrd, l1) <- hrd_bits ext l; do (pict, l2) <- rd 4 l1; Ok ((hrd, pict), l2).

Lemma Keeps_hrd ext : Keeps (g_hrd ext).
Proof.
  unfold g_hrd. destruct ext as [h|]; [|apply Tied_ret].
  apply Keeps_bind; [apply Keeps_rd|intros cpb]. apply Keeps_bind; [apply Keeps_rd|intros dpb]. apply Tied_ret.
Qed.

Lemma Tied_hrd ext tolen : ext_ok ext tolen = true -> Tied (g_hrd ext) (hrd_bits ext).
Proof.
  intros Hx. unfold ext_ok in Hx. unfold g_hrd, hrd_bits. destruct ext as [h|]; [|apply Tied_ret].
  step_with ltac:(apply Tied_rd; [lia|reflexivity|reflexivity]).
  step_with ltac:(apply Tied_rd; [lia|reflexivity|reflexivity]).
  apply Tied_ret.
Qed.

Lemma Tied_pt_head ext tolen :
  ext_ok ext tolen = true ->
  Tied (gbind (g_hrd ext) (fun hrd => gbind (g_rd u8 4) (fun pict => gret (hrd, pict)))) (pt_head_bits ext).
Proof.
  intros Hx. unfold pt_head_bits. step (apply (Tied_hrd ext tolen Hx)) as hrd. step_with ltac:(rd8 4). apply Tied_ret.
Qed.

Lemma pt_decode_head ext tolen payload :
  pt_decode ext tolen payload =
  match pt_head_bits ext (bytes_to_bits payload) with
  | Ok ((hrd, pict), l2) =>
      match num_clock_ts pict with
      | None => Err
      | Some k => do (cs, _) <- rd_clocks_avc k tolen l2; Ok (mkPT hrd tolen pict cs)
      end
  | Err => Err
  | Panic => Panic
  | OutOfFuel => OutOfFuel
  end.
Proof.
  unfold pt_decode, pt_head_bits, hrd_bits. cbv zeta. destruct ext as [h|].
  - destruct (rd (N.to_nat (h_cpb_len1 h + 1)) (bytes_to_bits payload)) as [[cpb la]| | |]; cbn [rbind]; try reflexivity.
    destruct (rd (N.to_nat (h_dpb_len1 h + 1)) la) as [[dpb lb]| | |]; cbn [rbind]; try reflexivity.
    destruct (rd 4 lb) as [[pict l2]| | |]; reflexivity.
  - cbn [rbind]. destruct (rd 4 (bytes_to_bits payload)) as [[pict l2]| | |]; reflexivity.
Qed.

Lemma pt_decode_tie ext tolen payload :
  ext_ok ext tolen = true -> bytes_ok payload = true ->
  pt_decode_go ext tolen payload = pt_decode ext tolen payload.
Proof.
  intros Hx Hb. rewrite pt_decode_head. unfold pt_decode_go.
  assert (Ht : tolen < 32) by (unfold ext_ok in Hx; lia).
  pose proof (proj1 (Tied_pt_head ext tolen Hx) _ _ (Sim_init payload Hb)) as HA.
  destruct (pt_head_bits ext (bytes_to_bits payload)) as [[[hrd pict] l2]| | |]; try contradiction.
  - destruct (gbind (g_hrd ext) _ (rinit payload)) as [[hrd0 pict0] s2]. cbn [fst snd] in HA.
    destruct HA as [[= -> ->] HS2].
    destruct (num_clock_ts pict) as [k|]; [|reflexivity].
    exact (finish_agree _ _ (mkPT hrd tolen pict) _ _ (proj1 (Tied_clocks_avc tolen k Ht)) HS2).
  - destruct (gbind (g_hrd ext) _ (rinit payload)) as [[hrd0 pict0] s2]. cbn [snd] in HA.
    destruct (num_clock_ts pict0) as [k|]; [|reflexivity].
    pose proof (proj2 (Tied_clocks_avc tolen k Ht) s2 HA) as HK.
    destruct (g_clocks_avc k tolen s2) as [cs s3]. cbn [snd] in HK. rewrite HK. reflexivity.
Qed.

Lemma pt_canonical_ext m : pt_canonical m = true -> ext_ok (p_hrd m) (p_tolen m) = true.
Proof.
  intros H. destruct (pt_canonical_inv m H) as (Hh & Ht & _). unfold ext_ok.
  destruct (p_hrd m) as [h|]; [|lia]. destruct (hrd_canonical_inv h Hh) as (H1 & H2 & _). lia.
Qed.

Lemma timecode_roundtrip_machine cs :
  tc_canonical cs = true -> tc_decode_go (tc_payload cs) = Ok cs.
Proof.
  intros H. rewrite tc_decode_tie.
  - apply (timecode_exec cs H).
  - apply (msg_ok_inv _ (timecode_msg_ok cs H)).
Qed.

Lemma pic_timing_roundtrip_machine m :
  pt_canonical m = true -> pt_decode_go (p_hrd m) (p_tolen m) (pt_payload m) = Ok m.
Proof.
  intros H. rewrite pt_decode_tie.
  - apply (pic_timing_exec m H).
  - exact (pt_canonical_ext m H).
  - apply (msg_ok_inv _ (pic_timing_msg_ok m H)).
Qed.

Lemma decoders_tie :
  (forall payload, bytes_ok payload = true -> tc_decode_go payload = tc_decode payload) /\
  (forall ext tolen payload, ext_ok ext tolen = true -> bytes_ok payload = true ->
     pt_decode_go ext tolen payload = pt_decode ext tolen payload).
Proof. split; [exact tc_decode_tie|exact pt_decode_tie]. Qed.

Lemma roundtrip_machine :
  (forall cs, tc_canonical cs = true -> tc_decode_go (tc_payload cs) = Ok cs) /\
  (forall m, pt_canonical m = true -> pt_decode_go (p_hrd m) (p_tolen m) (pt_payload m) = Ok m).
Proof. split; [exact timecode_roundtrip_machine|exact pic_timing_roundtrip_machine]. Qed.
