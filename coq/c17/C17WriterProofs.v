(* C17WriterProofs.v — the model's writer (C13 EBSPWriter model) emits, byte by byte, the
   plain serialisation of C17Spec. *)
From V.lib Require Import Base.
From V.c13 Require Import C13Model.
From V.c17 Require Import C17Spec C17Model C17RbspProofs.

(* WriteSEIValue(v) = Write(b, 8) for every byte b of the 0xFF-run code of v *)
Lemma write_sei_value_fuel_enc : forall fuel s v,
  (N.to_nat (v / 255) < fuel)%nat ->
  write_sei_value_fuel fuel s v = fold_left write_byte (ff_enc v) s.
Proof.
  induction fuel as [|f IH]; intros s v Hf; [lia|].
  cbn [write_sei_value_fuel].
  destruct (N.leb_spec 255 v) as [H|H].
  - rewrite ff_enc_ge by exact H. cbn [fold_left]. unfold write_byte at 2.
    apply IH. destruct (div255_step v H) as [E _]. lia.
  - rewrite ff_enc_lt by exact H. reflexivity.
Qed.

Lemma write_sei_value_enc s v :
  write_sei_value s v = fold_left write_byte (ff_enc v) s.
Proof. unfold write_sei_value. apply write_sei_value_fuel_enc. lia. Qed.

Lemma write_msg_ser s m : write_msg s m = fold_left write_byte (ser_msg m) s.
Proof.
  unfold write_msg, ser_msg. rewrite !fold_left_app, !write_sei_value_enc. reflexivity.
Qed.

Lemma write_msgs_ser : forall msgs s,
  fold_left write_msg msgs s = fold_left write_byte (ser msgs) s.
Proof.
  induction msgs as [|m ms IH]; intros s; [reflexivity|].
  cbn [fold_left]. rewrite ser_cons, fold_left_app, IH, write_msg_ser. reflexivity.
Qed.

Lemma write_sei_messages_ser msgs :
  write_sei_messages msgs = wout (write_trailing (fold_left write_byte (ser msgs) winit)).
Proof. unfold write_sei_messages. rewrite write_msgs_ser. reflexivity. Qed.

Lemma empty_list_rejected :
  write_sei_messages [] = [128] /\ extract_sei_data [128] = XErr.
Proof. split; vm_compute; reflexivity. Qed.
