(* C06FragProofs.v — decrypt_frag (encrypt_frag f) = f: structure, offsets and every sample byte. *)
From V.lib Require Import Base.
From V.c07 Require Import C07Model C07CryptProofs C07TrafModel.
From V.c06 Require Import C06Lib C06Model C06FragModel C06StructProofs C06SampleProofs.

Section FragProofs.
  Variable E : list N -> list N -> list N.
  Variable D : list N -> list N -> list N.
  Variable protfunc : list N -> res (list ssp).

  (* what EncryptFragment hands over, with either text of SencBox.AddSample: the clear tree with saiz / saio / senc
     appended to its traf, laid out, and the IVs, maps and bytes of the per-sample loop run from the padded IV *)
  Lemma encrypt_frag_inv sch key iv cb sb start mdat_hdr ids f e :
    encrypt_frag E D protfunc sch key iv cb sb start mdat_hdr ids f = Ok e \/
    encrypt_frag_r E D protfunc sch key iv cb sb start mdat_hdr ids f = Ok e ->
    exists encs saiz_sz senc_sz,
      length (pad_iv iv) = 16%nat /\
      encrypt_samples E D protfunc sch key (pad_iv iv) cb sb (cf_samples f) = Ok encs /\
      e = mkEF (layout start (add_enc_boxes (cf_children f) saiz_sz senc_sz ids) mdat_hdr)
               (decoded_ivs encs) (decoded_subs encs) (map e_data encs).
  Proof.
    unfold encrypt_frag, encrypt_frag_r. intros H.
    destruct (lenN (pad_iv iv) =? 16) eqn:E16; [|destruct H; discriminate]. cbn [negb] in H.
    apply N.eqb_eq in E16. unfold lenN in E16.
    destruct H as [H|H];
      apply rbind_Ok in H as (encs & Ee & H); apply rbind_Ok in H as (z & _ & H);
      apply rbind_Ok in H as (s & _ & H); apply rbind_Ok in H as (en & _ & H); injection H as <-;
      do 3 eexists; (split; [lia|]); (split; [exact Ee|reflexivity]).
  Qed.

  (* either scheme, either text of AddSample: the clear layout and the clear samples come back, and encryption
     has kept every sample length *)
  Lemma fragment_roundtrip sch key iv constiv cb sb start mdat_hdr ids f e :
    scheme_ok E D protfunc sch key (pad_iv iv) constiv (cf_samples f) ->
    clean_moof (cf_children f) = true -> nr_trafs (cf_children f) = 1%nat ->
    encrypt_frag E D protfunc sch key iv cb sb start mdat_hdr ids f = Ok e \/
    encrypt_frag_r E D protfunc sch key iv cb sb start mdat_hdr ids f = Ok e ->
    decrypt_frag E D sch key constiv cb sb e = Ok (layout start (cf_children f) mdat_hdr, cf_samples f) /\
    map (@length N) (ef_data e) = map (@length N) (cf_samples f).
  Proof.
    intros Hok Hc Hn H. destruct (encrypt_frag_inv _ _ _ _ _ _ _ _ _ _ H) as (encs & a & b & H16 & Hs & ->).
    destruct (samples_roundtrip E D protfunc sch key (pad_iv iv) constiv cb sb _ encs H16 Hok Hs) as [Hd Hl].
    split; [|exact Hl]. unfold decrypt_frag. cbn [ef_ivs ef_subs ef_data ef_frag].
    rewrite Hd. cbn [rbind]. rewrite fragment_struct_roundtrip by assumption. reflexivity.
  Qed.
End FragProofs.

(* ---------------------------------------------------------------- third-party content *)
Section Timing.
  Variable E : list N -> list N -> list N.
  Variable D : list N -> list N -> list N.

  Lemma dec_loop_cenc_lengths key cb sb ivs subs use : forall samples i iv out,
    dec_loop E D Cenc key cb sb ivs subs use i iv samples = Ok out ->
    map (@length N) out = map (@length N) samples.
  Proof.
    induction samples as [|s t IH]; intros i iv out H; cbn [dec_loop] in H.
    - injection H as <-. reflexivity.
    - apply rbind_Ok in H as (iv1 & _ & H). apply rbind_Ok in H as (ssps & _ & H).
      apply rbind_Ok in H as (p & Ec & H). apply rbind_Ok in H as (r & Er & H). injection H as <-.
      cbn [map]. rewrite (crypt_sample_cenc_length E key iv1 ssps s p Ec), (IH _ _ _ Er). reflexivity.
  Qed.

  (* any decodable cenc fragment (whatever produced it): if DecryptFragment succeeds, the number of samples and
     every sample size are unchanged, and the data offset / mdat position move by exactly the bytes removed
     from the moof; sample durations, flags, composition offsets and the decode time live in trun/tfdt/tfhd,
     which the surgery keeps untouched *)
  Lemma decrypt_preserves_timing key constiv cb sb e g samples :
    decrypt_frag E D Cenc key constiv cb sb e = Ok (g, samples) ->
    map (@length N) samples = map (@length N) (ef_data e) /\
    f_moof_start g = f_moof_start (ef_frag e) /\
    moof_size (f_children g) + (f_data_offset (ef_frag e) - f_data_offset g) = moof_size (f_children (ef_frag e)) /\
    f_data_offset g <= f_data_offset (ef_frag e).
  Proof.
    unfold decrypt_frag, decrypt_samples. intros H.
    apply rbind_Ok in H as (out & Ed & H). apply rbind_Ok in H as (g' & Es & H). injection H as -> ->.
    split; [exact (dec_loop_cenc_lengths _ _ _ _ _ _ _ _ _ _ Ed)|].
    destruct (decrypt_struct_general _ _ Es) as (H1 & H2 & H3 & _). repeat split; assumption.
  Qed.
End Timing.
