(* C06EntryProofs.v — DecryptInit restores every sample entry of every track. *)
From V.lib Require Import Base.
From V.c07 Require Import C07Model.
From V.c06 Require Import C06Lib C06InitModel C06InitProofs C06EntryModel.

Definition sch_ok (sch : N) : bool := (sch =? cc_cenc) || (sch =? cc_cbcs).

(* one entry: protect_entry then RemoveEncryption gives the entry back, with its 4cc from frma and all children
   (whatever they are) in place, and the sinf that was added *)
Lemma protect_entry_shape se iv sch kid ps_ok se' t :
  protect_entry se iv sch kid ps_ok = Ok (se', t) ->
  ((se_type se' =? cc_encv) || (se_type se' =? cc_enca)) = true /\
  se' = mkSE (se_kind se) (se_type se') (se_children se ++ [SESinf (mkSinf (se_type se) (Some sch) (Some t))]) /\
  sch_ok sch = true.
Proof.
  unfold protect_entry. intros H. apply rbind_Ok in H as (u & Eu & H). apply rbind_Ok in H as (t0 & Et & H).
  injection H as <- <-. cbn [se_type se_kind]. split; [|split; [reflexivity|]].
  - destruct (se_kind se); try discriminate; reflexivity.
  - unfold sch_ok. destruct (sch =? cc_cenc); [reflexivity|]. destruct (sch =? cc_cbcs); [reflexivity|discriminate].
Qed.

Lemma remove_encryption_protect se iv sch kid ps_ok se' t :
  protect_entry se iv sch kid ps_ok = Ok (se', t) ->
  remove_encryption se' = Ok (se, mkSinf (se_type se) (Some sch) (Some t)).
Proof.
  intros H. destruct (protect_entry_shape _ _ _ _ _ _ _ H) as [_ [-> _]].
  unfold remove_encryption. cbn [se_children se_kind]. rewrite last_sinf_app, remove_last_sinf_app.
  cbn [si_frma]. destruct se; reflexivity.
Qed.

(* one stsd: every entry restored, one track info per entry, scheme = sch (cenc or cbcs when there is an entry) *)
Lemma decrypt_entries_protect iv sch kid ps_ok : forall l l' ts,
  protect_entries l iv sch kid ps_ok = Ok (l', ts) ->
  decrypt_entries l' = Ok (l, map (fun t => Some (sch, Some t)) ts, match l with [] => 0 | _ => sch end) /\
  length ts = length l /\ (l <> [] -> sch_ok sch = true).
Proof.
  induction l as [|se t IH]; intros l' ts H; cbn [protect_entries] in H.
  - injection H as <- <-. repeat split. congruence.
  - apply rbind_Ok in H as ([se' t1] & Ep & H). apply rbind_Ok in H as ([t' ts'] & Eq & H). cbn [fst snd] in H.
    injection H as <- <-. destruct (protect_entry_shape _ _ _ _ _ _ _ Ep) as [Hty [_ Hs]].
    destruct (IH t' ts' Eq) as (Hd & Hl & _).
    split; [|split; [cbn [length]; rewrite Hl; reflexivity|intros _; exact Hs]].
    cbn [decrypt_entries]. rewrite Hty, (remove_encryption_protect _ _ _ _ _ _ _ Ep). cbn [rbind snd fst si_schm si_tenc].
    rewrite Hd. cbn [rbind map]. f_equal. f_equal.
    destruct t; [rewrite N.eqb_refl; reflexivity|].
    unfold sch_ok in Hs. apply orb_true_iff in Hs. destruct Hs as [Hs|Hs]; apply N.eqb_eq in Hs; subst sch; reflexivity.
Qed.

Definition entries_no_sinf (m : list mvchild) : bool :=
  forallb (fun c => match c with MVTrak s => forallb (fun se => no_sinf (se_children se)) s | _ => true end) m.

(* every trak *)
Lemma decrypt_traks_protect iv sch kid ps_ok : forall m m' ts,
  protect_traks m iv sch kid ps_ok = Ok (m', ts) ->
  decrypt_traks m' = Ok (m, infos_of sch ts).
Proof.
  induction m as [|c t IH]; intros m' ts H; cbn [protect_traks] in H.
  - injection H as <- <-. reflexivity.
  - destruct c as [s|i|i].
    1: { apply rbind_Ok in H as ([s' ts1] & Ep & H). apply rbind_Ok in H as ([t' ts2] & Eq & H). cbn [fst snd] in H.
         injection H as <- <-. destruct (decrypt_entries_protect iv sch kid ps_ok s s' ts1 Ep) as (Hd & Hl & Hs).
         cbn [decrypt_traks]. rewrite Hd. cbn [rbind]. rewrite (IH t' ts2 Eq). cbn [rbind fst snd infos_of flat_map].
         destruct s as [|se s0]; destruct ts1 as [|t1 ts1]; try discriminate Hl; [reflexivity|].
         (* a trak with entries: the scheme passes DecryptInit's check *)
         specialize (Hs ltac:(discriminate)). unfold sch_ok in Hs. apply orb_true_iff in Hs.
         destruct Hs as [Hs|Hs]; apply N.eqb_eq in Hs; subst sch; reflexivity. }
    all: apply rbind_Ok in H as ([t' ts2] & Eq & H); cbn [fst snd] in H; injection H as <- <-;
      cbn [decrypt_traks]; rewrite (IH t' ts2 Eq); reflexivity.
Qed.

Lemma filter_psshs m ps :
  no_pssh m = true -> filter (fun c => negb (is_mvpssh c)) (m ++ map MVPssh ps) = m.
Proof.
  intros Hn. rewrite filter_app, (proj1 (filter_none is_mvpssh m Hn)).
  replace (filter (fun c => negb (is_mvpssh c)) (map MVPssh ps)) with (@nil mvchild); [apply app_nil_r|].
  induction ps as [|p t IH]; [reflexivity|exact IH].
Qed.

Lemma decrypt_traks_app_psshs : forall m ps r,
  decrypt_traks m = Ok r -> decrypt_traks (m ++ map MVPssh ps) = Ok (fst r ++ map MVPssh ps, snd r).
Proof.
  induction m as [|c t IH]; intros ps r H; cbn [app decrypt_traks] in *.
  - injection H as <-. induction ps as [|p u IHp]; [reflexivity|]. cbn [map decrypt_traks]. rewrite IHp. reflexivity.
  - destruct c as [s|i|i].
    1: { apply rbind_Ok in H as ([[es tis] last] & Ee & H). rewrite Ee. cbn [rbind].
         destruct (negb (last =? 0) && negb (last =? cc_cenc) && negb (last =? cc_cbcs)); [discriminate|].
         apply rbind_Ok in H as (q & Eq & H). injection H as <-. rewrite (IH ps q Eq). reflexivity. }
    all: apply rbind_Ok in H as (q & Eq & H); injection H as <-; rewrite (IH ps q Eq); reflexivity.
Qed.

(* DecryptInit on a moov in which every entry of every track was protected, pssh boxes appended: everything back *)
Lemma init_restore_all m iv sch kid ps_ok psshs m' ts :
  no_pssh m = true ->
  protect_traks m iv sch kid ps_ok = Ok (m', ts) ->
  decrypt_init (m' ++ map MVPssh psshs) = Ok (m, infos_of sch ts).
Proof.
  intros Hp H. unfold decrypt_init.
  rewrite (decrypt_traks_app_psshs m' psshs _ (decrypt_traks_protect iv sch kid ps_ok m m' ts H)).
  cbn [rbind fst snd]. rewrite filter_psshs by exact Hp. reflexivity.
Qed.

(* ---------------------------------------------------------------- InitProtect itself: one track, one entry *)
Lemma protect_traks_notrak iv sch kid ps_ok : forall m, traks_of m = [] -> protect_traks m iv sch kid ps_ok = Ok (m, []).
Proof.
  induction m as [|c t IH]; intros H; [reflexivity|].
  destruct c as [s|i|i]; cbn [traks_of flat_map app] in H; [discriminate|..]; cbn [protect_traks]; rewrite (IH H); reflexivity.
Qed.

(* protecting the single entry of the single track is protecting every entry of every track *)
Lemma protect_traks_single iv sch kid ps_ok se se' t : forall m,
  traks_of m = [[se]] -> protect_entry se iv sch kid ps_ok = Ok (se', t) ->
  protect_traks m iv sch kid ps_ok = Ok (replace_trak m [se'], [[t]]).
Proof.
  intros m Ht He. induction m as [|c u IH]; [discriminate|].
  destruct c as [s|i|i]; cbn [traks_of flat_map app] in Ht; cbn [protect_traks replace_trak].
  - injection Ht as -> Hu. cbn [protect_entries]. rewrite He, (protect_traks_notrak _ _ _ _ u Hu). reflexivity.
  - rewrite (IH Ht). reflexivity.
  - rewrite (IH Ht). reflexivity.
Qed.

(* DecryptInit (InitProtect init) = init: the sample entry type is restored from frma, the sinf and the pssh
   boxes are gone, every other child of the sample entry and of moov is kept in place; the decrypt side gets
   the scheme and the tenc that InitProtect returned *)
Lemma init_roundtrip m iv sch kid psshs ps_ok m' t :
  init_protect m iv sch kid psshs ps_ok = Ok (m', t) ->
  no_pssh m = true ->
  decrypt_init m' = Ok (m, [Some (sch, Some t)]).
Proof.
  unfold init_protect. intros H Hnp.
  destruct (traks_of m) as [|[|se [|? ?]] [|? ?]] eqn:Et; try discriminate.
  apply rbind_Ok in H as ([se' t'] & He & H). cbn [fst snd] in H. injection H as <- <-.
  exact (init_restore_all m _ sch kid ps_ok psshs _ _ Hnp (protect_traks_single _ _ _ _ _ _ _ m Et He)).
Qed.
