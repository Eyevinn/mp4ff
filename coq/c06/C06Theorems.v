(* C06Theorems.v — the property theorems of C06 and nothing else.  Each is a lemma of the proof files, or an instance of
   one derived in a few lines, and is followed by Print Assumptions (audited by ./check on every run).  The crypt functions are those of the C07
   model (coq/c07/C07Model.v); E and D are arbitrary functions from key and block to block. *)
From V.lib Require Import Base.
From V.c07 Require Import C07Model.
From V.c06 Require Import C06Lib C06Model C06InitModel C06StructProofs C06CencProofs C06CbcsProofs C06SampleProofs C06InitProofs C06FragModel C06FragProofs.
From V.c06 Require Import C06SencModel C06SencProofs C06SencAuxProofs C06TrexModel C06TrexProofs C06EntryModel C06EntryProofs.
From V.c06 Require Import C06SencRepairProofs C06FileCbcsProofs C06TimingModel C06TimingProofs C06SinfModel C06SinfProofs.
From V.c06 Require Import C06MultiModel C06MultiProofs C06FixedModel C06FixedProofs C06TrafTimingModel C06TrafTimingProofs.

(* cenc: crypting twice with the same key, IV and sub-sample map restores the sample — for EVERY block function
   E, every map (empty = whole sample, partial last block, clear runs > 65535, even overlapping or wrapping
   maps): only xor algebra is involved *)
Theorem C06_cenc_involution :
  forall (E : list N -> list N -> list N) (key iv : list N) (ssps : list ssp) (s c : list N),
  crypt_sample_cenc E key iv ssps s = Ok c -> crypt_sample_cenc E key iv ssps c = Ok s.
Proof. exact crypt_sample_cenc_involution. Qed.
Print Assumptions C06_cenc_involution.

(* cbcs: decryption inverts encryption for every crypt:skip pattern (1:9 video, 0:0 audio, any other), every
   size class, whenever D inverts E on 16-byte blocks *)
Theorem C06_cbcs_inverse :
  forall (E D : list N -> list N -> list N) (key : list N),
  (forall k b, length (E k b) = 16%nat) ->
  (forall k b, length (D k b) = 16%nat) ->
  (forall k b, length b = 16%nat -> D k (E k b) = b) ->
  forall (iv : list N) (ssps : list ssp) (cb sb : N) (s c : list N),
  key_ok key = true -> length iv = 16%nat ->
  sumN (map (fun p => ss_clear p + ss_prot p) ssps) <= lenN s ->
  lenN s < 4294967296 ->
  crypt_sample_cbcs E D false key iv ssps cb sb s = Ok c ->
  crypt_sample_cbcs E D true key iv ssps cb sb c = Ok s.
Proof. exact crypt_sample_cbcs_inverse. Qed.
Print Assumptions C06_cbcs_inverse.

(* RemoveEncryptionBoxes (repaired text): keeps every box that is not saiz/saio/senc/uuid-senc, in order
   (vendor uuid boxes and unknown boxes included), and returns exactly the sizes of the removed ones *)
Theorem C06_remove_encryption_boxes : forall ch,
  fst (remove_encryption_boxes ch) = filter (fun b => negb (is_prot_kind (tk b))) ch /\
  snd (remove_encryption_boxes ch) = sumN (map tsize (filter (fun b => is_prot_kind (tk b)) ch)).
Proof. intros ch. rewrite reb_eq. split; reflexivity. Qed.
Print Assumptions C06_remove_encryption_boxes.

(* "every box that is not protection signalling ... present and unchanged": is_protection_box looks at the grouping
   type of sample group boxes (sbgp / sgpd are protection signalling only for seig).  Whatever the traf holds, the
   boxes that are not protection signalling come out of RemoveEncryptionBoxes in the same order, unchanged (same
   kind, size, identity), nothing is invented, and the byte count returned is exactly what the traf lost *)
Theorem C06_nonprotection_boxes_kept : forall ch,
  filter (fun b => negb (is_protection_box (tk b))) (fst (remove_encryption_boxes ch))
  = filter (fun b => negb (is_protection_box (tk b))) ch /\
  (forall b, In b ch -> is_protection_box (tk b) = false -> In b (fst (remove_encryption_boxes ch))) /\
  (forall b, In b (fst (remove_encryption_boxes ch)) -> In b ch) /\
  sumN (map tsize (fst (remove_encryption_boxes ch))) + snd (remove_encryption_boxes ch) = sumN (map tsize ch).
Proof. exact reb_keeps_nonprotection. Qed.
Print Assumptions C06_nonprotection_boxes_kept.

(* and a RemoveEncryptionBoxes that removes every sbgp / sgpd without looking at the grouping type (proposed as "the
   sample group boxes of an encrypted traf carry the seig groups") violates it: roll groups of the clear traf vanish *)
Theorem C06_drop_all_groups_refuted :
  let ch := [mkT TOther 16 1; mkT TTrun 32 2; mkT (TSbgp cc_roll) 28 3; mkT (TSgpd cc_roll) 26 4] in
  filter (fun b => negb (is_protection_box (tk b))) (fst (remove_encryption_boxes_allgroups ch))
  <> filter (fun b => negb (is_protection_box (tk b))) ch /\
  fst (remove_encryption_boxes ch) = ch.
Proof. exact drop_all_groups_refuted. Qed.
Print Assumptions C06_drop_all_groups_refuted.

(* structure round trip for every single-traf fragment with arbitrary opaque boxes in moof and traf (no guard
   on uuid boxes): EncryptFragment, encode + decode at any position, DecryptFragment gives the encoded +
   decoded clear fragment: same children in the same order, the clear data offset and mdat position *)
Theorem C06_fragment_struct_roundtrip : forall start cs mdat_hdr saiz_sz senc_sz ids,
  clean_moof cs = true -> nr_trafs cs = 1%nat ->
  decrypt_frag_struct (layout start (add_enc_boxes cs saiz_sz senc_sz ids) mdat_hdr)
  = Ok (layout start cs mdat_hdr).
Proof. exact fragment_struct_roundtrip. Qed.
Print Assumptions C06_fragment_struct_roundtrip.

(* IV sequence + sample round trip, cenc: decryptSamplesInPlace, fed with the IVs and sub-sample lists that the
   per-sample loop of EncryptFragment stored (as the senc decoder returns them), decrypts sample i with the IV and
   map stored for sample i and returns the clear samples — every E, every protection function, 8-byte inputs
   included (EncryptFragment pads them to 16 bytes before the loop) *)
Theorem C06_iv_sequence_cenc :
  forall (E D : list N -> list N -> list N) (protfunc : list N -> res (list ssp)) (key iv : list N)
         (samples : list (list N)) (encs : list enc_sample) (cb sb : N) (constiv : list N),
  length iv = 16%nat ->
  encrypt_samples_cenc E protfunc key iv samples = Ok encs ->
  decrypt_samples E D Cenc key constiv cb sb (decoded_ivs encs) (decoded_subs encs) (map e_data encs) = Ok samples.
Proof. exact samples_roundtrip_cenc. Qed.
Print Assumptions C06_iv_sequence_cenc.

(* cbcs: no per-sample IV is stored; the decrypt side starts every sample from tenc's constant IV, which is the
   encryption IV, and returns the clear samples *)
Theorem C06_iv_sequence_cbcs :
  forall (E D : list N -> list N -> list N) (protfunc : list N -> res (list ssp)) (key iv : list N) (cb sb : N),
  (forall k b, length (E k b) = 16%nat) ->
  (forall k b, length (D k b) = 16%nat) ->
  (forall k b, length b = 16%nat -> D k (E k b) = b) ->
  key_ok key = true -> length iv = 16%nat ->
  forall (samples : list (list N)) (encs : list enc_sample),
  encrypt_samples_cbcs E D protfunc key iv cb sb samples = Ok encs ->
  (forall s ssps, In s samples -> protfunc s = Ok ssps -> fits s ssps) ->
  decrypt_samples E D Cbcs key iv cb sb (decoded_ivs encs) (decoded_subs encs) (map e_data encs) = Ok samples.
Proof.
  intros E D protfunc key iv cb sb HE HD HDE Hk Hiv samples encs. apply samples_roundtrip_cbcs; [exact Hiv|repeat split; assumption].
Qed.
Print Assumptions C06_iv_sequence_cbcs.

(* third-party content: for ANY fragment on which DecryptFragment's surgery succeeds, the trun data offset (and
   the mdat position, when the mdat follows the moof) moves by exactly the number of bytes the moof shrinks, so it
   designates the same mdat bytes; the surgery touches no sample field (the model has none to touch: trun sample
   tables, tfdt and tfhd are opaque boxes that are kept) *)
Theorem C06_decrypt_preserves_offsets_single : forall f g,
  decrypt_frag_struct f = Ok g ->
  f_moof_start g = f_moof_start f /\
  moof_size (f_children g) + (f_data_offset f - f_data_offset g) = moof_size (f_children f) /\
  f_data_offset g <= f_data_offset f /\
  (f_moof_start f < f_mdat_start f ->
   f_mdat_start g + (f_data_offset f - f_data_offset g) = f_mdat_start f \/ f_mdat_start f < f_data_offset f - f_data_offset g).
Proof. exact decrypt_struct_general. Qed.
Print Assumptions C06_decrypt_preserves_offsets_single.

(* the same for ANY fragment with k trafs (multi-track: protected tracks, clear tracks and tracks the init segment does
   not know side by side) x m truns per traf and pssh boxes in the moof, third-party content included (C06MultiModel.v:
   DecryptFragment with int32 data offsets and a uint64 mdat position).  Whenever DecryptFragment succeeds there is ONE
   number `removed` such that
   - the moof has become exactly `removed` bytes shorter (sizes are Box.Size(): a box with a 16-byte header counts 16),
   - the box tree is the clear tree: in every protected traf saiz / saio / senc (both spellings) are gone and every other
     box is there in order, a traf of a clear track is untouched, the pssh boxes are gone, every other moof child is there
     in order (x_struct = the tree without senc contents and sample bytes),
   - EVERY data offset of EVERY trun of EVERY traf has become `o - removed` (int32 arithmetic; exact in range), so it
     addresses the same mdat bytes, and the mdat position moves by the same `removed` (uint64; exact in range).
   The pssh bytes are part of `removed`: C06_pssh_undercount_refuted shows that the variant which measures the shrink
   without them moves the offsets by too little *)
Theorem C06_decrypt_preserves_offsets :
  forall (E D : list N -> list N -> list N) (di : list (N * option tinfo)) (key : list N) (f g : xfrag),
  decrypt_multi E D di key f = Ok g ->
  exists removed,
    xmoof_size (xf_children g) + removed = xmoof_size (xf_children f) /\
    map x_struct (xf_children g) = map (shift_traf removed) (map x_struct (clear_children di (xf_children f))) /\
    xf_moof_start g = xf_moof_start f /\
    (forall o, xmoof_size (xf_children f) < 18446744073709551616 ->
               (-2147483648 <= o - Z.of_N removed)%Z -> (o < 2147483648)%Z ->
               sub_i32 o removed = (o - Z.of_N removed)%Z) /\
    (xf_moof_start f < xf_mdat_start f -> removed <= xf_mdat_start f -> xf_mdat_start f < 18446744073709551616 ->
     xf_mdat_start g + removed = xf_mdat_start f) /\
    (xf_mdat_start f <= xf_moof_start f -> xf_mdat_start g = xf_mdat_start f).
Proof.
  intros E D di key f g H. destruct (decrypt_multi_general E D di key f g H) as (removed & H1 & H2 & H3 & H4).
  exists removed. split; [exact H1|]. split; [exact H2|]. split; [exact H3|]. split; [|split].
  - intros o Hs Hlo Hhi. apply sub_i32_exact; [lia|exact Hlo|exact Hhi].
  - intros Hlt Hle H64. rewrite H4. apply N.ltb_lt in Hlt. rewrite Hlt, sub_u64_exact by assumption. lia.
  - intros Hge. rewrite H4. apply N.ltb_ge in Hge. rewrite Hge. reflexivity.
Qed.
Print Assumptions C06_decrypt_preserves_offsets.

Theorem C06_pssh_undercount_refuted :
  let E := fun (_ b : list N) => b in
  let di := [(1, Some (mkTI Cenc [] 0 0))] in
  let f := mkXF 0 [XOther 16 1; XPssh 32 2;
                   XTraf (mkX 1 [mkT TOther 16 3; mkT TTrun 24 4; mkT TSenc 16 5] [128%Z] [] [] [])] 120 in
  let clear := [XOther 16 1; XTraf (mkX 1 [mkT TOther 16 3; mkT TTrun 24 4] [80%Z] [] [] [])] in
  xmoof_size (xf_children f) = 120 /\ xmoof_size clear = 72 /\
  decrypt_multi E E di [] f = Ok (mkXF 0 clear 72) /\
  decrypt_multi_undercount E E di [] f
  = Ok (mkXF 0 [XOther 16 1; XTraf (mkX 1 [mkT TOther 16 3; mkT TTrun 24 4] [112%Z] [] [] [])] 104).
Proof. exact pssh_undercount_refuted. Qed.
Print Assumptions C06_pssh_undercount_refuted.

(* multi-track / multi-trun round trip, sample bytes included.  cs = the PROTECTED box tree (k trafs with their track
   ids, any number of truns each, saiz / saio / senc at any position of a protected traf, pssh boxes at any position of
   the moof, any other boxes) holding the CLEAR sample bytes of every traf; enc_children runs the per-sample loop of
   EncryptFragment over every protected traf (its own IV, its own protection function, cenc or cbcs per track).  Laid
   out at any position with every trun addressing its own position of the mdat payload (any interleaving), the
   fragment decrypts to the layout of the CLEAR tree with the same payload positions: every box that is not
   protection signalling in place, every trun of every traf addressing the same bytes, the mdat right behind the
   shorter moof, every sample byte of every traf restored.  Hypotheses: D inverts E on blocks (cbcs), the senc is
   there, 16-byte IVs, cbcs maps fit their samples and tenc carries the IV; int32 / uint64 ranges *)
Theorem C06_fragment_roundtrip_multi :
  forall (E D : list N -> list N -> list N) (protfunc : N -> list N -> res (list ssp)) (iv_of : N -> list N)
         (di : list (N * option tinfo)) (key : list N),
  (forall k b, length (E k b) = 16%nat) ->
  (forall k b, length (D k b) = 16%nat) ->
  (forall k b, length b = 16%nat -> D k (E k b) = b) ->
  key_ok key = true ->
  forall cs cs_e start mdat_hdr poss,
  trafs_ok protfunc iv_of di cs ->
  enc_children E D protfunc iv_of di key cs = Ok cs_e ->
  poss_ok (xmoof_size cs + mdat_hdr) poss ->
  start + xmoof_size cs < 18446744073709551616 ->
  decrypt_multi E D di key (xlayout start cs_e mdat_hdr poss)
  = Ok (xlayout start (clear_children di cs) mdat_hdr poss).
Proof. exact fragment_roundtrip_multi. Qed.
Print Assumptions C06_fragment_roundtrip_multi.

(* finding C06-F7 (fixed in /repo, fc9ee41): the pinned text fetched the samples of the FIRST traf of the track for
   every traf (C06MultiModel.decrypt_multi_pinned).  Two trafs of one cenc track: the text of the tree restores both, the
   pinned text returns nil with the clear box tree and both trafs still encrypted *)
Theorem C06_first_traf_samples_refuted :
  let di := [(1, Some (mkTI Cenc [] 0 0))] in
  let key := repeat 3 16 in
  let iv_of := fun _ : N => repeat 7 16 in
  let cs := [XOther 16 1;
             XTraf (mkX 1 [mkT TOther 16 2; mkT TTrun 20 3; mkT TSenc 32 4] [] [] [] [[10; 20; 30]]);
             XTraf (mkX 1 [mkT TOther 16 5; mkT TTrun 20 6; mkT TSenc 32 7] [] [] [] [[40; 50; 60]])] in
  match enc_children f7_E f7_E (fun _ _ => Ok []) iv_of di key cs with
  | Ok cs_e =>
      let f := xlayout 0 cs_e 8 [[0]; [3]] in
      decrypt_multi f7_E f7_E di key f = Ok (xlayout 0 (clear_children di cs) 8 [[0]; [3]]) /\
      match decrypt_multi_pinned f7_E f7_E di key f with
      | Ok g =>
          map (fun c => match c with XTraf t => x_data t | _ => [] end) (xf_children g)
          = [[]; [[2; 28; 22]]; [[32; 58; 52]]] /\
          map (fun c => match c with XTraf t => x_data t | _ => [] end) cs_e = [[]; [[2; 28; 22]]; [[32; 58; 52]]] /\
          map x_struct (xf_children g) = map x_struct (xf_children (xlayout 0 (clear_children di cs) 8 [[0]; [3]]))
      | _ => False
      end
  | _ => False
  end.
Proof. exact first_traf_samples_refuted. Qed.
Print Assumptions C06_first_traf_samples_refuted.

(* the clear tree named by the two theorems holds no pssh box and no protection box in a protected traf *)
Theorem C06_clear_tree_clean : forall di cs c,
  In c (clear_children di cs) ->
  x_is_pssh c = false /\
  (forall t, c = XTraf t -> find_track di (x_track t) <> None ->
             forallb (fun b => negb (is_prot_kind_x (tk b))) (x_children t) = true).
Proof. exact clear_children_clean. Qed.
Print Assumptions C06_clear_tree_clean.

(* init segment: DecryptInit (InitProtect init) = init for every single-track init whose moov has no pssh: the
   sample entry type is restored from frma (avc1/avc3/hvc1/hev1, any audio type), the sinf InitProtect added and the
   added pssh boxes are gone, every other child of the sample entry - a sinf the entry owned before protection
   included: RemoveEncryption (text after fix bb3f974) removes the sinf it returns, the last one - and of moov is
   kept in place, and the decrypt side receives the scheme and the tenc that InitProtect returned.  No guard on the
   entry's children *)
Theorem C06_init_roundtrip : forall m iv sch kid psshs ps_ok m' t,
  init_protect m iv sch kid psshs ps_ok = Ok (m', t) ->
  no_pssh m = true ->
  decrypt_init m' = Ok (m, [Some (sch, Some t)]).
Proof. exact init_roundtrip. Qed.
Print Assumptions C06_init_roundtrip.

(* the whole fragment, sample bytes included: decrypt_frag (encrypt_frag f) = f after an encode/decode cycle at any
   position: same moof/traf children in order, clear data offset and mdat position, every sample byte restored.
   cenc: every block function, every protection function (AVC, HEVC, audio = no sub-samples), 8/16-byte IVs *)
Theorem C06_fragment_roundtrip_cenc :
  forall (E D : list N -> list N -> list N) (protfunc : list N -> res (list ssp))
         key iv cb sb start mdat_hdr ids f e constiv,
  clean_moof (cf_children f) = true -> nr_trafs (cf_children f) = 1%nat ->
  encrypt_frag E D protfunc Cenc key iv cb sb start mdat_hdr ids f = Ok e ->
  decrypt_frag E D Cenc key constiv cb sb e = Ok (layout start (cf_children f) mdat_hdr, cf_samples f).
Proof. intros. apply (fragment_roundtrip E D protfunc Cenc key iv constiv cb sb start mdat_hdr ids f e); auto. exact I. Qed.
Print Assumptions C06_fragment_roundtrip_cenc.

(* cbcs: D inverts E on 16-byte blocks, the sub-sample maps fit their samples (true for the maps of
   Get(AVC|HEVC)ProtectRanges by C07_cbcs_shape, and for audio), constant IV = padded encryption IV *)
Theorem C06_fragment_roundtrip_cbcs :
  forall (E D : list N -> list N -> list N) (protfunc : list N -> res (list ssp))
         key iv cb sb start mdat_hdr ids f e,
  (forall k b, length (E k b) = 16%nat) ->
  (forall k b, length (D k b) = 16%nat) ->
  (forall k b, length b = 16%nat -> D k (E k b) = b) ->
  key_ok key = true ->
  (forall s ssps, In s (cf_samples f) -> protfunc s = Ok ssps -> fits s ssps) ->
  clean_moof (cf_children f) = true -> nr_trafs (cf_children f) = 1%nat ->
  encrypt_frag E D protfunc Cbcs key iv cb sb start mdat_hdr ids f = Ok e ->
  decrypt_frag E D Cbcs key (pad_iv iv) cb sb e = Ok (layout start (cf_children f) mdat_hdr, cf_samples f).
Proof.
  intros. apply (fragment_roundtrip E D protfunc Cbcs key iv (pad_iv iv) cb sb start mdat_hdr ids f e); auto.
  apply scheme_ok_cbcs; assumption.
Qed.
Print Assumptions C06_fragment_roundtrip_cbcs.

(* the two fragment theorems for EncryptFragment with SencBox.AddSample in its REPAIRED text (the code as it is now):
   same statements; they are no longer vacuous on fragments mixing samples with and without protection ranges
   (ex_frag_roundtrip_mixed: the pinned model panics there, the repaired one round-trips) *)
Theorem C06_fragment_roundtrip_repaired_cenc :
  forall (E D : list N -> list N -> list N) (protfunc : list N -> res (list ssp))
         key iv cb sb start mdat_hdr ids f e constiv,
  clean_moof (cf_children f) = true -> nr_trafs (cf_children f) = 1%nat ->
  encrypt_frag_r E D protfunc Cenc key iv cb sb start mdat_hdr ids f = Ok e ->
  decrypt_frag E D Cenc key constiv cb sb e = Ok (layout start (cf_children f) mdat_hdr, cf_samples f).
Proof. intros. apply (fragment_roundtrip E D protfunc Cenc key iv constiv cb sb start mdat_hdr ids f e); auto. exact I. Qed.
Print Assumptions C06_fragment_roundtrip_repaired_cenc.

Theorem C06_fragment_roundtrip_repaired_cbcs :
  forall (E D : list N -> list N -> list N) (protfunc : list N -> res (list ssp))
         key iv cb sb start mdat_hdr ids f e,
  (forall k b, length (E k b) = 16%nat) ->
  (forall k b, length (D k b) = 16%nat) ->
  (forall k b, length b = 16%nat -> D k (E k b) = b) ->
  key_ok key = true ->
  (forall s ssps, In s (cf_samples f) -> protfunc s = Ok ssps -> fits s ssps) ->
  clean_moof (cf_children f) = true -> nr_trafs (cf_children f) = 1%nat ->
  encrypt_frag_r E D protfunc Cbcs key iv cb sb start mdat_hdr ids f = Ok e ->
  decrypt_frag E D Cbcs key (pad_iv iv) cb sb e = Ok (layout start (cf_children f) mdat_hdr, cf_samples f).
Proof.
  intros. apply (fragment_roundtrip E D protfunc Cbcs key iv (pad_iv iv) cb sb start mdat_hdr ids f e); auto.
  apply scheme_ok_cbcs; assumption.
Qed.
Print Assumptions C06_fragment_roundtrip_repaired_cbcs.

(* third-party cenc content: a successful DecryptFragment keeps the sample count and every sample size, and
   shifts the offsets by exactly the removed bytes (cbcs sizes: explored on the repository's cbcs files) *)
Theorem C06_decrypt_preserves_timing :
  forall (E D : list N -> list N -> list N) key constiv cb sb e g samples,
  decrypt_frag E D Cenc key constiv cb sb e = Ok (g, samples) ->
  map (@length N) samples = map (@length N) (ef_data e) /\
  f_moof_start g = f_moof_start (ef_frag e) /\
  moof_size (f_children g) + (f_data_offset (ef_frag e) - f_data_offset g) = moof_size (f_children (ef_frag e)) /\
  f_data_offset g <= f_data_offset (ef_frag e).
Proof. exact decrypt_preserves_timing. Qed.
Print Assumptions C06_decrypt_preserves_timing.

(* ---------------------------------------------------------------- the senc box, byte for byte *)
(* parse (encode senc) = senc: the box SencBox.Encode writes (header, version/flags, sample_count, per-sample IV of
   0 / 8 / 16 bytes, sub-sample tables) is read back by DecodeSenc + ParseReadBox as the same SencBox state, for
   every IV size and every sub-sample layout (constant-IV cbcs boxes without per-sample IVs, audio boxes without
   tables, empty boxes included), when ParseReadBox is given the written IV size, or 0 (= infer) for a box without
   sub-sample tables *)
Theorem C06_senc_codec : forall s p box,
  senc_wf s = true -> p_ok p s = true ->
  senc_encode s = Ok box -> lenN box < 4294967296 ->
  senc_parse p box = Ok s.
Proof. exact senc_codec. Qed.
Print Assumptions C06_senc_codec.

(* saiz describes exactly the senc entries: for a fragment whose samples all carry an IV of ivsz bytes and
   uniformly have / do not have a sub-sample map, the sizes the SaizBox of EncryptFragment describes are the byte
   lengths of the entries the SencBox writes, sample by sample (entries below 256 bytes: C07-F1 beyond) *)
Theorem C06_aux_consistent : forall ivsz sub encs z,
  (ivsz = 0 \/ ivsz = 8 \/ ivsz = 16) -> uniform ivsz sub encs = true ->
  forallb (fun e => lenN e <? 256) (entries_of ivsz sub encs) = true ->
  saiz_of saiz_empty encs = Ok z ->
  if sub || (0 <? ivsz) then
    saiz_sizes z = map (fun e => lenN e) (entries_of ivsz sub encs) /\ sz_count z = lenN encs
  else
    saiz_sizes z = [] /\ sz_count z = 0 /\ concat (entries_of ivsz sub encs) = [].
Proof. exact aux_consistent. Qed.
Print Assumptions C06_aux_consistent.

(* saio: in the encoded moof (any boxes before the traf, any boxes before senc in the traf, box sizes as at
   encryption time) the stored offset addresses the first byte of the first senc entry, and it is the value
   TrafBox.ParseReadSenc insists on (senc box position + 16, relative to the moof start) *)
Theorem C06_saio_points_at_entries : forall moof_hdr traf_hdr (before pre : list (list N)) post senc_hdr16 entries tail,
  length moof_hdr = 8%nat -> length traf_hdr = 8%nat -> length senc_hdr16 = 16%nat ->
  forallb (fun x : bool * N => negb (fst x)) post = true ->
  let off := saio_offset (map (fun b => lenN b) before)
                         (map (fun b => (false, lenN b)) pre ++ (true, lenN (senc_hdr16 ++ entries)) :: post) in
  let moof := moof_hdr ++ concat before ++ traf_hdr ++ concat pre ++ (senc_hdr16 ++ entries) ++ tail in
  skipn (N.to_nat off) moof = entries ++ tail /\
  off = lenN (moof_hdr ++ concat before ++ traf_hdr ++ concat pre) + 16.
Proof. exact saio_points_at_entries. Qed.
Print Assumptions C06_saio_points_at_entries.

(* transport, cenc: the senc box written for the samples EncryptFragment's loop encrypted (16-byte IVs, all samples
   with a sub-sample map = video, or none = audio) is parsed with tenc's per-sample IV size 16 into exactly the IV
   list and sub-sample lists (decoded_ivs / decoded_subs) that C06_iv_sequence_cenc and C06_fragment_roundtrip_cenc
   feed to decryptSamplesInPlace: this is the "as the senc decoder returns them" of those theorems *)
Theorem C06_senc_transport_cenc :
  forall (E : list N -> list N -> list N) (protfunc : list N -> res (list ssp)) sub key iv samples encs s box,
  length iv = 16%nat -> prot_uniform protfunc sub samples -> prot_in_range protfunc samples ->
  lenN samples < 4294967296 ->
  encrypt_samples_cenc E protfunc key iv samples = Ok encs ->
  senc_of senc_empty encs = Ok s -> senc_encode s = Ok box -> lenN box < 4294967296 ->
  exists s', senc_parse 16 box = Ok s' /\ sn_ivs s' = decoded_ivs encs /\ sn_ss s' = decoded_subs encs /\
             sn_count s' = lenN samples.
Proof.
  intros E protfunc sub key iv samples encs s box Hl Hu Hr Hc He. apply (senc_transport_uniform 16 sub); auto.
  - exact (cenc_loop_uniform E protfunc sub samples key iv encs Hl Hu He).
  - apply (stored_in_range protfunc _ _ _ Hr (encrypt_samples_cenc_stored E protfunc key samples iv encs Hl He)).
    intros s0 e H. apply H.
Qed.
Print Assumptions C06_senc_transport_cenc.

(* transport, cbcs: no per-sample IV is written; tenc's per-sample IV size is 0 *)
Theorem C06_senc_transport_cbcs :
  forall (E D : list N -> list N -> list N) (protfunc : list N -> res (list ssp)) sub key iv cb sb samples encs s box,
  prot_uniform protfunc sub samples -> prot_in_range protfunc samples ->
  lenN samples < 4294967296 ->
  encrypt_samples_cbcs E D protfunc key iv cb sb samples = Ok encs ->
  senc_of senc_empty encs = Ok s -> senc_encode s = Ok box -> lenN box < 4294967296 ->
  exists s', senc_parse 0 box = Ok s' /\ sn_ivs s' = decoded_ivs encs /\ sn_ss s' = decoded_subs encs /\
             sn_count s' = lenN samples.
Proof.
  intros E D protfunc sub key iv cb sb samples encs s box Hu Hr Hc He. apply (senc_transport_uniform 0 sub); auto.
  - exact (cbcs_loop_uniform E D protfunc sub samples key iv cb sb encs Hu He).
  - apply (stored_in_range protfunc _ _ _ Hr (encrypt_samples_cbcs_stored E D protfunc key iv cb sb samples encs He)).
    intros s0 e H. apply H.
Qed.
Print Assumptions C06_senc_transport_cbcs.

(* why `uniform` / prot_uniform was there: with the PINNED SencBox.AddSample (C07Model.senc_add) a fragment mixing
   samples with and without a sub-sample map left one table for two samples in the SencBox and Encode indexed out of
   range (known finding C06-F4, reproduced on the real code then; repaired in /repo by ecf1460 + 0b086ee) *)
Theorem C06_mixed_subsamples_refuted :
  let encs := [mkEnc (repeat 1 16) [] []; mkEnc (repeat 2 16) [mkSsp 5 16] []] in
  exists s, senc_of senc_empty encs = Ok s /\ sn_count s = 2 /\ length (sn_ss s) = 1%nat /\ senc_encode s = Panic.
Proof. exact mixed_subsamples_refuted. Qed.
Print Assumptions C06_mixed_subsamples_refuted.

(* the repaired AddSample (C06SencModel.senc_add_r, the text the correspondence now runs against) builds the same
   SencBox as the pinned one on every uniform fragment, so the theorems above keep describing the code *)
Theorem C06_senc_repaired_agrees : forall ivsz sub encs,
  ivsz < 256 -> uniform ivsz sub encs = true -> lenN encs < 4294967296 ->
  senc_of_r senc_empty encs = senc_of senc_empty encs.
Proof. exact senc_of_r_uniform. Qed.
Print Assumptions C06_senc_repaired_agrees.

(* and for ANY fragment - samples with and without sub-sample maps in any order (a video sample without protection
   range next to normal ones) - the SencBox of the repaired loop, written by Encode and parsed with the IV size it
   was written with, is exactly the IV list and the per-sample sub-sample lists that C06_iv_sequence_cenc / _cbcs
   (which never needed uniformity) feed to decryptSamplesInPlace: mixed fragments round-trip *)
Theorem C06_senc_transport_mixed : forall ivsz encs s box,
  (ivsz = 0 \/ ivsz = 8 \/ ivsz = 16) -> ivs_sized ivsz encs = true ->
  forallb subs_ok (map e_ssps encs) = true -> lenN encs < 4294967296 ->
  senc_of_r senc_empty encs = Ok s -> senc_encode s = Ok box -> lenN box < 4294967296 ->
  exists s', senc_parse ivsz box = Ok s' /\ sn_ivs s' = decoded_ivs encs /\ sn_ss s' = decoded_subs encs /\
             sn_count s' = lenN encs.
Proof. exact senc_transport_mixed. Qed.
Print Assumptions C06_senc_transport_mixed.

(* what about a CLEAR input whose traf already carries a seig sample group?  seig is protection signalling that
   EncryptFragment neither writes nor updates, and TrafBox.ParseReadSenc lets its per-sample IV size override the
   tenc's.  If it agrees with the tenc InitProtect writes (or there is none) the decrypt side reads the senc as above;
   if it contradicts it, the senc EncryptFragment wrote cannot be read (16-byte IVs do not fill the data as 8-byte IVs:
   an error since the ParseReadBox fix, a silent misread before; reproduced on the real code, see reports/C06.md):
   such an input is outside the property's "clear track" *)
Theorem C06_seig_override_refuted :
  let encs := [mkEnc (repeat 1 16) [] []; mkEnc (repeat 2 16) [] []] in
  exists s box,
    senc_of_r senc_empty encs = Ok s /\ senc_encode s = Ok box /\
    traf_senc_seig 16 None 100 124 (Some 40) box = Ok s /\ sn_ivs s = decoded_ivs encs /\
    traf_senc_seig 16 (Some 8) 100 124 (Some 40) box = Err.
Proof. exact seig_override_refuted. Qed.
Print Assumptions C06_seig_override_refuted.

(* ---------------------------------------------------------------- sample location (trex) and whole files *)
(* the trex is a parameter of BOTH sides: EncryptFragment finds the samples with ipd.Trex, DecryptFragment with the
   track's trex of the decrypted init.  When they agree, the whole mdat payload is restored (sizes per sample in
   trun, from tfhd.default_sample_size or only from trex.default_sample_size; bytes behind the last sample are
   untouched) *)
Theorem C06_fragment_roundtrip_trex_cenc :
  forall (E D : list N -> list N -> list N) (protfunc : list N -> res (list ssp))
         key iv constiv cb sb start mdat_hdr ids trex_e trex_d f e pl,
  trex_d = trex_e ->
  clean_moof (pf_children f) = true -> nr_trafs (pf_children f) = 1%nat ->
  encrypt_frag_trex E D protfunc Cenc key iv cb sb start mdat_hdr ids trex_e f = Ok (e, pl) ->
  decrypt_frag_trex E D Cenc key constiv cb sb trex_d (pf_sizing f) e pl
  = Ok (layout start (pf_children f) mdat_hdr, pf_payload f).
Proof. intros; subst. eapply trex_roundtrip; eauto. intros; exact I. Qed.
Print Assumptions C06_fragment_roundtrip_trex_cenc.

(* any scheme (cbcs): the same from the fragment round trip and "encryption keeps every sample length" *)
Theorem C06_fragment_roundtrip_trex_generic :
  forall (E D : list N -> list N -> list N) (protfunc : list N -> res (list ssp))
         sch key iv constiv cb sb start mdat_hdr ids trex_e trex_d f e pl,
  sample_sizes trex_d (pf_sizing f) = sample_sizes trex_e (pf_sizing f) ->
  (forall samples e0, encrypt_frag E D protfunc sch key iv cb sb start mdat_hdr ids (mkC (pf_children f) samples) = Ok e0 ->
     decrypt_frag E D sch key constiv cb sb e0 = Ok (layout start (pf_children f) mdat_hdr, samples) /\
     map (@length N) (ef_data e0) = map (@length N) samples) ->
  encrypt_frag_trex E D protfunc sch key iv cb sb start mdat_hdr ids trex_e f = Ok (e, pl) ->
  decrypt_frag_trex E D sch key constiv cb sb trex_d (pf_sizing f) e pl
  = Ok (layout start (pf_children f) mdat_hdr, pf_payload f).
Proof. intros until pl. intros Hsz Hrt. apply trex_roundtrip_found; [exact Hsz|]. intros samples _ e0 _. apply Hrt. Qed.
Print Assumptions C06_fragment_roundtrip_trex_generic.

(* and the statement is false when they differ: EncryptFragment with a nil trex on a fragment whose sizes come
   only from trex.default_sample_size encrypts nothing (payload unchanged, senc/saiz/saio written all the same),
   DecryptFragment with the real trex then runs the cipher over clear payload *)
Theorem C06_trex_mismatch_refuted :
  let E := fun (_ _ : list N) => repeat 1 16 in
  let f := mkP [MOther 16 1; MTraf [mkT TOther 16 2; mkT TTrun 20 3]] (mkSizing 2 None None) [10; 20; 30; 40; 50; 60; 70; 80] in
  exists e pl out,
    encrypt_frag_trex E E (fun _ => Ok []) Cenc (repeat 3 16) (repeat 0 16) 0 0 100 8 50 None f = Ok (e, pl) /\
    pl = pf_payload f /\
    decrypt_frag_trex E E Cenc (repeat 3 16) [] 0 0 (Some 4) (pf_sizing f) e pl = Ok out /\
    snd out <> pf_payload f.
Proof. exact trex_mismatch_refuted. Qed.
Print Assumptions C06_trex_mismatch_refuted.

(* whole files, any number of fragments (induction over the fragment list): mp4ff-encrypt encrypts every fragment
   with the same IV and writes them one after the other; fragment i of the encrypted file starts where the clear
   one would plus the bytes added to the moofs of fragments 0..i-1 (enc_positions); mp4ff-decrypt decrypts every
   fragment in place (moof start unchanged, data offset and mdat position back to the clear values relative to
   it), and re-encoding from any position gives exactly the layout of the clear file, with every sample restored.
   cenc; the sidx of a segment is known finding C06-F3 and not part of the model *)
Theorem C06_file_roundtrip_cenc :
  forall (E D : list N -> list N -> list N) (protfunc : list N -> res (list ssp)) key iv constiv cb sb
         (fs : list (cfrag * N)) start_e ids es,
  Forall (fun p : cfrag * N => clean_moof (cf_children (fst p)) = true /\ nr_trafs (cf_children (fst p)) = 1%nat) fs ->
  encrypt_file E D protfunc Cenc key iv cb sb start_e ids fs = Ok es ->
  exists gs, decrypt_file E D Cenc key constiv cb sb es = Ok gs /\
    (forall start_c, reencode start_c gs = layout_file start_c fs) /\
    map (fun g => snd (fst g)) gs = map (fun p => cf_samples (fst p)) fs /\
    map (fun g => f_moof_start (fst (fst g))) gs = enc_positions start_e fs es.
Proof.
  intros E D protfunc key iv constiv cb sb fs start_e ids es Hall. apply file_roundtrip. revert Hall. apply Forall_impl.
  intros p [Hc Hn]. repeat split; assumption.
Qed.
Print Assumptions C06_file_roundtrip_cenc.

(* ---------------------------------------------------------------- cbcs: lengths, trex, whole files *)
(* cryptSampleCbcs (either direction, every crypt:skip pattern, every sub-sample map that lies inside the sample)
   returns a sample of the same length: proved from the model (splices of equal length, CBC over whole blocks) *)
Theorem C06_cbcs_keeps_length :
  forall (E D : list N -> list N -> list N),
  (forall k b, length (E k b) = 16%nat) -> (forall k b, length (D k b) = 16%nat) ->
  forall dec key iv ssps cb sb s c,
  key_ok key = true -> length iv = 16%nat -> fits s ssps ->
  crypt_sample_cbcs E D dec key iv ssps cb sb s = Ok c -> length c = length s.
Proof. intros E D HE HD dec key iv ssps cb sb s c Hk Hiv [Hf1 Hf2]. apply (crypt_sample_cbcs_len E D key HE HD); assumption. Qed.
Print Assumptions C06_cbcs_keeps_length.

(* the trex-parameterised round trip for cbcs WITHOUT the "encryption keeps every sample length" hypothesis of
   C06_fragment_roundtrip_trex_generic: the whole mdat payload (below 4 GiB) is restored when both sides resolve the
   sample sizes with the same trex *)
Theorem C06_fragment_roundtrip_trex_cbcs :
  forall (E D : list N -> list N -> list N),
  (forall k b, length (E k b) = 16%nat) -> (forall k b, length (D k b) = 16%nat) ->
  forall (protfunc : list N -> res (list ssp)),
  (forall k b, length b = 16%nat -> D k (E k b) = b) ->
  forall key iv cb sb start mdat_hdr ids trex_e trex_d f e pl,
  key_ok key = true -> prot_inside protfunc -> lenN (pf_payload f) < 4294967296 ->
  trex_d = trex_e ->
  clean_moof (pf_children f) = true -> nr_trafs (pf_children f) = 1%nat ->
  encrypt_frag_trex E D protfunc Cbcs key iv cb sb start mdat_hdr ids trex_e f = Ok (e, pl) ->
  decrypt_frag_trex E D Cbcs key (pad_iv iv) cb sb trex_d (pf_sizing f) e pl
  = Ok (layout start (pf_children f) mdat_hdr, pf_payload f).
Proof.
  intros E D HE HD protfunc HDE key iv cb sb start mdat_hdr ids trex_e trex_d f e pl Hk Hpf Hpl -> Hc Hn.
  apply trex_roundtrip; [|exact Hc|exact Hn].
  intros samples rest Es. apply scheme_ok_inside; try assumption.
  intros s Hin. destruct (split_spec _ _ _ _ Es) as [Hcat _].
  pose proof (in_concat_le s samples Hin). rewrite <- Hcat, lenN_app in Hpl. lia.
Qed.
Print Assumptions C06_fragment_roundtrip_trex_cbcs.

(* whole files, cbcs, any number of fragments: as C06_file_roundtrip_cenc (the constant IV of tenc is the padded
   encryption IV; samples below 4 GiB) *)
Theorem C06_file_roundtrip_cbcs :
  forall (E D : list N -> list N -> list N),
  (forall k b, length (E k b) = 16%nat) -> (forall k b, length (D k b) = 16%nat) ->
  forall (protfunc : list N -> res (list ssp)),
  (forall k b, length b = 16%nat -> D k (E k b) = b) ->
  forall key iv cb sb, key_ok key = true -> prot_inside protfunc ->
  forall (fs : list (cfrag * N)) start_e ids es,
  Forall (fun p : cfrag * N => clean_moof (cf_children (fst p)) = true /\ nr_trafs (cf_children (fst p)) = 1%nat /\
                               forallb (fun s => lenN s <? 4294967296) (cf_samples (fst p)) = true) fs ->
  encrypt_file E D protfunc Cbcs key iv cb sb start_e ids fs = Ok es ->
  exists gs, decrypt_file E D Cbcs key (pad_iv iv) cb sb es = Ok gs /\
    (forall start_c, reencode start_c gs = layout_file start_c fs) /\
    map (fun g => snd (fst g)) gs = map (fun p => cf_samples (fst p)) fs /\
    map (fun g => f_moof_start (fst (fst g))) gs = enc_positions start_e fs es.
Proof.
  intros E D HE HD protfunc HDE key iv cb sb Hk Hpf fs start_e ids es Hall. apply file_roundtrip. revert Hall. apply Forall_impl.
  intros p (Hc & Hn & Hlen). split; [exact Hc|]. split; [exact Hn|]. apply scheme_ok_inside; try assumption.
  intros s Hin. apply N.ltb_lt. exact (proj1 (forallb_forall _ _) Hlen s Hin).
Qed.
Print Assumptions C06_file_roundtrip_cbcs.

(* ---------------------------------------------------------------- durations, flags, composition offsets, decode times *)
(* EncryptFragment and DecryptFragment both call Fragment.GetFullSamples(their trex), which writes the tfhd / trex
   defaults INTO trun.Samples (AddSampleDefaultValues) of the fragment that is then encoded.  For every trun as a
   decoder delivers it (any combination of per-sample duration / size / flags / cto, first-sample-flags, data
   offset), every tfhd, every trex on the encrypt side (a wrong one or nil included) and on the decrypt side: the
   encoded trun is read back as the clear trun (only the data offset is new), after the encrypt round (tr1) and
   again after the decrypt round (tr2); so sample count, sizes, durations, flags, composition offsets and decode
   times reported by Fragment.GetFullSamples with any trex_d are those of the clear fragment *)
Theorem C06_timing_roundtrip : forall tfhd trex_e tr off1 off2,
  as_decoded tr = true ->
  off1 < 4294967296 -> off2 < 4294967296 -> (tr_doff tr = true -> off1 <> 0 /\ off2 <> 0) ->
  exists tr1 tr2,
    trun_after_encrypt tfhd trex_e tr off1 = Ok tr1 /\
    (forall trex_d, trun_after_encrypt tfhd trex_d tr1 off2 = Ok tr2) /\
    tr_samples tr1 = tr_samples tr /\ tr_samples tr2 = tr_samples tr /\
    forall trex_d base,
      fragment_meta tfhd trex_d tr1 base = fragment_meta tfhd trex_d tr base /\
      fragment_meta tfhd trex_d tr2 base = fragment_meta tfhd trex_d tr base.
Proof. exact timing_roundtrip. Qed.
Print Assumptions C06_timing_roundtrip.

(* and the sizes with which C06_fragment_roundtrip_trex_cenc / _cbcs split the mdat payload are the size column of
   that metadata: the `sizing` of those theorems is sizing_of tfhd trun *)
Theorem C06_sizes_agree : forall tfhd trex tr base,
  sample_sizes (option_map tx_size trex) (sizing_of tfhd tr) = sizes_of_meta (fragment_meta tfhd trex tr base).
Proof. exact sizes_agree. Qed.
Print Assumptions C06_sizes_agree.

(* the same for a traf with ANY number of truns (C06TrafTimingModel.traf_meta: Fragment.GetFullSamples walks the truns
   and advances the base time by what AddSampleDefaultValues returns): every trun goes through the encrypt side
   (defaults of ANY trex, Encode, decode) and the decrypt side (defaults of ANY trex, Encode, decode) with any data
   offsets; count, sizes, durations, flags, composition offsets and DECODE TIMES of the whole traf - the decode time of
   a later trun depends on the durations of all earlier ones - are those of the clear traf *)
Theorem C06_timing_roundtrip_multi : forall tfhd trex_e (l : list (trun_t * (N * N))),
  (forall tr o1 o2, In (tr, (o1, o2)) l ->
     as_decoded tr = true /\ o1 < 4294967296 /\ o2 < 4294967296 /\ (tr_doff tr = true -> o1 <> 0 /\ o2 <> 0)) ->
  exists l12 : list (trun_t * trun_t),
    Forall2 (fun x p => trun_after_encrypt tfhd trex_e (fst x) (fst (snd x)) = Ok (fst p) /\
                        (forall trex_d, trun_after_encrypt tfhd trex_d (fst p) (snd (snd x)) = Ok (snd p)) /\
                        tr_samples (fst p) = tr_samples (fst x) /\ tr_samples (snd p) = tr_samples (fst x)) l l12 /\
    forall trex_d base,
      traf_meta tfhd trex_d (map fst l12) base = traf_meta tfhd trex_d (map fst l) base /\
      traf_meta tfhd trex_d (map snd l12) base = traf_meta tfhd trex_d (map fst l) base.
Proof. exact timing_roundtrip_multi. Qed.
Print Assumptions C06_timing_roundtrip_multi.

(* ---------------------------------------------------------------- several sample entries, several tracks *)
(* a moov in which EVERY sample entry of EVERY track has been protected the way InitProtect protects its single
   entry (type -> encv / enca, sinf(frma = original type, schm, schi(tenc)) appended after the entry's own
   children, whatever those are: avcC/hvcC/esds, btrt, pasp, unknown boxes), with pssh boxes appended to the moov:
   DecryptInit restores every entry (original 4cc from frma, sinf gone, every other child in place and in order),
   every track, every other moov child, removes the pssh boxes and returns one (scheme, tenc) per entry.
   No guard on the entries' children: an entry may own sinf boxes of its own (they stay) *)
Theorem C06_init_restore_all : forall m iv sch kid ps_ok psshs m' ts,
  no_pssh m = true ->
  protect_traks m iv sch kid ps_ok = Ok (m', ts) ->
  decrypt_init (m' ++ map MVPssh psshs) = Ok (m, infos_of sch ts).
Proof. exact init_restore_all. Qed.
Print Assumptions C06_init_restore_all.

(* ---------------------------------------------------------------- the sample entry and its sinf as bytes *)
(* the sinf box InitProtect writes (frma = original sample entry type, schm = scheme + version 1.0, schi{tenc}) is read
   back by DecodeSinf / DecodeFrma / DecodeSchm / DecodeSchi / DecodeTenc with exactly these values: every tenc that
   fits its field widths (version 0 / 1, crypt:skip pattern, per-sample IV size, 16-byte KID, constant IV) *)
Theorem C06_sinf_codec : forall fmt sch t,
  fmt < 4294967296 -> sch < 4294967296 -> tenc_wf t = true ->
  sinf_decode (sinf_encode fmt sch t) = Ok (mkSD (Some fmt) (Some sch) (Some (Some t))).
Proof. exact sinf_codec. Qed.
Print Assumptions C06_sinf_codec.

(* "restores the original sample entry type", in bytes: the entry InitProtect + Encode write (size, encv / enca, the
   fixed fields, the entry's own child boxes whatever they are - avcC / hvcC / esds, btrt, pasp, unknown boxes, sinf
   boxes of its own -, then the new sinf) is turned by decode + RemoveEncryption + Encode into exactly the bytes of the
   clear entry (size and 4cc included), and the sinf handed to DecryptFragment is the one InitProtect built *)
Theorem C06_entry_bytes_roundtrip_opaque : forall enc_ty ty fixed children sch t,
  ty < 4294967296 -> sch < 4294967296 -> tenc_wf t = true ->
  forallb wf_box children = true ->
  8 + lenN fixed + lenN (concat children) + 400 < 4294967296 ->
  unprotect_entry_bytes (length fixed) (protect_entry_bytes enc_ty ty fixed children sch t)
  = Ok (entry_bytes ty fixed children, mkSD (Some ty) (Some sch) (Some (Some t))).
Proof. exact entry_bytes_roundtrip. Qed.
Print Assumptions C06_entry_bytes_roundtrip_opaque.

(* the fixed fields of the sample entry as TYPED fields (C06FixedModel.v: DecodeVisualSampleEntrySR / EncodeSW,
   DecodeAudioSampleEntrySR / EncodeSW): data_reference_index, width, height, horizresolution, vertresolution,
   frame_count, compressor name / data_reference_index, channelcount, samplesize, samplerate are read back exactly as
   written, for every value within the field widths *)
Theorem C06_entry_fixed_fields :
  (forall v, vfixed_wf v = true -> vfixed_decode (vfixed_encode v) = Ok v /\ length (vfixed_encode v) = 78%nat) /\
  (forall a, afixed_wf a = true -> afixed_decode (afixed_encode a) = a /\ length (afixed_encode a) = 28%nat).
Proof.
  split.
  - intros v H. split; [apply vfixed_codec|apply vfixed_encode_len]; exact H.
  - intros a H. split; [apply afixed_codec; exact H|apply afixed_encode_len].
Qed.
Print Assumptions C06_entry_fixed_fields.

(* third-party entries: for ANY 78 / 28 input bytes what the library writes back (reserved / pre_defined bytes zeroed,
   depth 0x0018, fractional sample rate dropped: this happens on any decode + encode, protected or not) carries the same
   typed fields, has the right length and is a fixed point of decode + encode *)
Theorem C06_entry_fixed_stable : forall k fx fx',
  bytes_ok fx = true -> fixed_reencode k fx = Ok fx' ->
  fixed_reencode k fx' = Ok fx' /\ length fx' = fixed_len k /\
  match k with
  | SVisual => vfixed_decode fx' = vfixed_decode fx
  | SAudio => afixed_decode fx' = afixed_decode fx
  | SOtherKind => True
  end.
Proof. exact fixed_reencode_stable. Qed.
Print Assumptions C06_entry_fixed_stable.

(* decode (typed fixed fields, children with 8- or 16-byte headers) + RemoveEncryption + Encode of a protected entry
   whose sinf stands at ANY position among the children - children BEFORE and AFTER it; InitProtect appends: after =
   [] -, for ANY fixed bytes fx: the entry comes back under its original 4cc with the re-encoded fixed fields fx' and
   the children before and after the sinf in place; the sinf handed to DecryptFragment is the one written.  `after`
   holds no further sinf (RemoveEncryption reads and removes the LAST one) *)
Theorem C06_entry_typed_roundtrip : forall k ty fx fx' before after sch t,
  k <> SOtherKind ->
  ty < 4294967296 -> sch < 4294967296 -> tenc_wf t = true ->
  length fx = fixed_len k -> fixed_reencode k fx = Ok fx' ->
  forallb wf_box16 before = true -> forallb wf_box16 after = true -> no_sinf_box after = true ->
  8 + lenN fx + lenN (concat before) + lenN (concat after) + 400 < 4294967296 ->
  unprotect_entry_typed k (protect_entry_bytes_at (enc_type k) ty fx before after sch t)
  = Ok (entry_bytes ty fx' (before ++ after), mkSD (Some ty) (Some sch) (Some (Some t))).
Proof. exact entry_typed_roundtrip. Qed.
Print Assumptions C06_entry_typed_roundtrip.

(* "restores the original sample entry type", byte for byte: for an entry as the library writes it (fixed fields fx a
   fixed point of decode + encode, e.g. vfixed_encode v / afixed_encode a: C06_entry_fixed_fields, C06_entry_fixed_stable)
   EVERY BYTE of the entry except the size field, the 4cc and the sinf child is identical before and after:
     protected = size_p ++ encv/enca ++ fx ++ children before ++ sinf ++ children after
     clear     = size_c ++ ty        ++ fx ++ children before ++         children after *)
Theorem C06_entry_bytes_roundtrip : forall k ty fx before after sch t,
  k <> SOtherKind ->
  ty < 4294967296 -> sch < 4294967296 -> tenc_wf t = true ->
  length fx = fixed_len k -> fixed_reencode k fx = Ok fx ->
  forallb wf_box16 before = true -> forallb wf_box16 after = true -> no_sinf_box after = true ->
  8 + lenN fx + lenN (concat before) + lenN (concat after) + 400 < 4294967296 ->
  exists clear size_p size_c,
    unprotect_entry_typed k (protect_entry_bytes_at (enc_type k) ty fx before after sch t)
    = Ok (clear, mkSD (Some ty) (Some sch) (Some (Some t))) /\
    protect_entry_bytes_at (enc_type k) ty fx before after sch t
    = size_p ++ be_bytes4 (enc_type k) ++ fx ++ concat before ++ sinf_encode ty sch t ++ concat after /\
    clear = size_c ++ be_bytes4 ty ++ fx ++ concat before ++ concat after /\
    length size_p = 4%nat /\ length size_c = 4%nat.
Proof. exact entry_bytes_identical. Qed.
Print Assumptions C06_entry_bytes_roundtrip.

(* ---------------------------------------------------------------- examples *)
(* the defect of the pinned tree (fixed by the `fix:` commit): traf{tfhd, tfxd-uuid} lost its uuid box and no
   byte was counted *)
Example C06_uuid_dropped_pinned :
  remove_encryption_boxes_pinned [mkT TOther 16 1; mkT TUuidOther 44 2] = ([mkT TOther 16 1], 0) /\
  remove_encryption_boxes [mkT TOther 16 1; mkT TUuidOther 44 2] = ([mkT TOther 16 1; mkT TUuidOther 44 2], 0).
Proof. split; reflexivity. Qed.

(* a clear moof with extra boxes satisfying the hypotheses of the round trip *)
Example ex_clean :
  let cs := [MOther 16 1; MOther 14 9; MTraf [mkT TOther 16 2; mkT TOther 20 3; mkT TTrun 60 4; mkT TUuidOther 44 5; mkT TOther 13 6;
                                             mkT (TSbgp cc_roll) 28 8; mkT (TSgpd cc_roll) 26 10]; MOther 11 7] in
  clean_moof cs = true /\ nr_trafs cs = 1%nat.
Proof. split; reflexivity. Qed.

(* block functions satisfying the hypotheses of C06_cbcs_inverse: xor with a key-derived pad *)
Definition ex_pad (k : list N) : list N := firstn 16 (k ++ repeat 90 16).
Definition ex_E (k b : list N) : list N := xorl (firstn 16 (b ++ repeat 0 16)) (ex_pad k).

Example ex_E_inverse :
  (forall k b, length (ex_E k b) = 16%nat) /\ (forall k b, length b = 16%nat -> ex_E k (ex_E k b) = b).
Proof.
  assert (Hp : forall k, length (ex_pad k) = 16%nat).
  { intros k. unfold ex_pad. rewrite firstn_length, app_length, repeat_length. lia. }
  assert (Hf : forall b, length (firstn 16 (b ++ repeat 0 16)) = 16%nat).
  { intros b. rewrite firstn_length, app_length, repeat_length. lia. }
  assert (Hl : forall k b, length (ex_E k b) = 16%nat).
  { intros k b. unfold ex_E. rewrite xorl_len; [apply Hf|rewrite Hf, Hp; reflexivity]. }
  split; [exact Hl|]. intros k b Hb. unfold ex_E at 1.
  assert (H1 : firstn 16 (ex_E k b ++ repeat 0 16) = ex_E k b).
  { rewrite firstn_app, (Hl k b), Nat.sub_diag, firstn_all2 by (rewrite Hl; lia). cbn. apply app_nil_r. }
  rewrite H1. unfold ex_E. rewrite xorl_involutive by (rewrite Hf, Hp; reflexivity).
  rewrite firstn_app, Hb, Nat.sub_diag, firstn_all2 by lia. cbn. apply app_nil_r.
Qed.

(* an init satisfying the hypotheses of C06_init_roundtrip; ex_init_own_sinf: an entry that already owns a sinf
   keeps it (the pinned RemoveEncryption removed the FIRST sinf child: fixed in /repo, commit bb3f974) *)
Example ex_init :
  let m := [MVOther 1; MVTrak [mkSE SVisual cc_avc1 [SEOther 2; SEOther 3]]; MVOther 4] in
  no_pssh m = true /\
  match init_protect m (repeat 7 8) cc_cbcs 1 [1000] true with
  | Ok (m', t) => decrypt_init m' = Ok (m, [Some (cc_cbcs, Some t)]) /\ t_constiv t = repeat 7 8 ++ repeat 0 8
  | _ => False
  end.
Proof. vm_compute. repeat split; reflexivity. Qed.

Example ex_init_own_sinf :
  let own := SESinf (mkSinf 1 (Some cc_cenc) None) in
  let m := [MVTrak [mkSE SAudio 77 [own; SEOther 2]]] in
  match init_protect m (repeat 7 16) cc_cenc 1 [] true with
  | Ok (m', t) => decrypt_init m' = Ok (m, [Some (cc_cenc, Some t)]) /\
                  (* the pinned RemoveEncryption removed the entry's own sinf and kept the added one *)
                  match m' with
                  | [MVTrak [se']] => exists s, remove_encryption_pinned se' = Ok (mkSE SAudio 77 [SEOther 2; SESinf s], s)
                  | _ => False
                  end
  | _ => False
  end.
Proof. vm_compute. split; [reflexivity|]. eexists. reflexivity. Qed.

(* the hypotheses of the fragment round trips are satisfiable: an AVC cenc fragment with a tfxd-like uuid box *)
Example ex_frag_roundtrip :
  let f := mkC [MOther 16 1; MTraf [mkT TOther 16 2; mkT TOther 20 3; mkT TTrun 60 4; mkT TUuidOther 44 5]]
               [C07Spec.frames [101 :: repeat 7 139; [6; 1]]; C07Spec.frames [65 :: repeat 9 120]] in
  clean_moof (cf_children f) = true /\ nr_trafs (cf_children f) = 1%nat /\
  match encrypt_frag ex_E ex_E (protect_ranges avc_is_video (fun _ => Err) Cenc) Cenc (repeat 3 16) (repeat 255 8)
                     0 0 500 8 100 f with
  | Ok e => decrypt_frag ex_E ex_E Cenc (repeat 3 16) [] 0 0 e = Ok (layout 500 (cf_children f) 8, cf_samples f)
            /\ ef_data e <> cf_samples f
  | _ => False
  end.
Proof. vm_compute. repeat split; try reflexivity. discriminate. Qed.

(* the hypotheses of the senc theorems are satisfiable: a cenc video box (16-byte IVs, sub-sample tables), a cbcs
   box without per-sample IVs, and the 8-byte-IV box read with perSampleIVSize 0 (inferred) *)
Example ex_senc_codec :
  let s1 := mkSenc 16 true 2 [repeat 7 16; repeat 9 16] [[mkSsp 100 32; mkSsp 7 0]; [mkSsp 65535 4294967295]] in
  let s2 := mkSenc 0 true 1 [] [[mkSsp 9 160]] in
  let s3 := mkSenc 8 false 3 [repeat 1 8; repeat 2 8; repeat 3 8] [] in
  senc_wf s1 = true /\ p_ok 16 s1 = true /\ senc_wf s2 = true /\ p_ok 0 s2 = true /\ senc_wf s3 = true /\ p_ok 0 s3 = true /\
  match senc_encode s1, senc_encode s2, senc_encode s3 with
  | Ok b1, Ok b2, Ok b3 => senc_parse 16 b1 = Ok s1 /\ senc_parse 0 b2 = Ok s2 /\ senc_parse 0 b3 = Ok s3 /\ lenN b1 = 70
  | _, _, _ => False
  end.
Proof. vm_compute. repeat split; reflexivity. Qed.

Example ex_aux_consistent :
  let encs := [mkEnc (repeat 7 16) [mkSsp 100 32; mkSsp 7 0] []; mkEnc (repeat 8 16) [mkSsp 5 16] []] in
  uniform 16 true encs = true /\
  forallb (fun e => lenN e <? 256) (entries_of 16 true encs) = true /\
  match saiz_of saiz_empty encs with Ok z => saiz_sizes z = [30; 24] | _ => False end.
Proof. vm_compute. repeat split; reflexivity. Qed.

(* a two-fragment file satisfying the hypotheses of C06_file_roundtrip_cenc; the second fragment of the encrypted
   file starts 17 (saiz) + 20 (saio) + 48 (senc) = 85 bytes later than in the clear file *)
Example ex_file_roundtrip :
  let f1 := (mkC [MOther 16 1; MTraf [mkT TOther 16 2; mkT TTrun 40 3]] [repeat 5 20; repeat 6 3], 8) in
  let f2 := (mkC [MTraf [mkT TOther 16 4; mkT TTrun 28 5; mkT TUuidOther 44 6]] [repeat 7 17], 8) in
  Forall (fun p : cfrag * N => clean_moof (cf_children (fst p)) = true /\ nr_trafs (cf_children (fst p)) = 1%nat) [f1; f2] /\
  match encrypt_file ex_E ex_E (fun _ => Ok []) Cenc (repeat 3 16) (repeat 255 8) 0 0 1000 50 [f1; f2] with
  | Ok es => enc_positions 1000 [f1; f2] es = [1000; 1204] /\ map f_moof_start (layout_file 1000 [f1; f2]) = [1000; 1119]
  | _ => False
  end.
Proof. split; [repeat constructor|]. vm_compute. split; reflexivity. Qed.

(* two tracks, the first with two sample entries (avc1 with two children, avc3), the second an audio track with an
   unknown child: all protected, two pssh boxes, everything back *)
Example ex_init_restore_all :
  let m := [MVOther 1; MVTrak [mkSE SVisual cc_avc1 [SEOther 2; SEOther 3]; mkSE SVisual cc_avc3 [SEOther 4]];
            MVTrak [mkSE SAudio 1836069985 [SEOther 5; SEOther 6]]; MVOther 7] in
  no_pssh m = true /\
  match protect_traks m (repeat 7 16) cc_cbcs 1 true with
  | Ok (m', ts) => decrypt_init (m' ++ map MVPssh [1000; 1001]) = Ok (m, infos_of cc_cbcs ts) /\ length (infos_of cc_cbcs ts) = 3%nat
  | _ => False
  end.
Proof. vm_compute. repeat split; reflexivity. Qed.

(* the hypotheses of the cbcs file theorem are satisfiable: audio (no sub-sample map), two fragments, pattern 0:0 *)
Example ex_file_roundtrip_cbcs :
  let f1 := (mkC [MOther 16 1; MTraf [mkT TOther 16 2; mkT TTrun 40 3; mkT (TSbgp cc_roll) 28 7; mkT (TSgpd cc_roll) 26 8]] [repeat 5 40; repeat 6 3], 8) in
  let f2 := (mkC [MTraf [mkT TOther 16 4; mkT TTrun 28 5; mkT TUuidOther 44 6]] [repeat 7 17], 8) in
  prot_inside (fun _ => Ok []) /\
  Forall (fun p : cfrag * N => clean_moof (cf_children (fst p)) = true /\ nr_trafs (cf_children (fst p)) = 1%nat /\
                               forallb (fun s => lenN s <? 4294967296) (cf_samples (fst p)) = true) [f1; f2] /\
  match encrypt_file ex_E ex_E (fun _ => Ok []) Cbcs (repeat 3 16) (repeat 9 8) 0 0 1000 50 [f1; f2] with
  | Ok es => map (fun e => ef_data (fst e)) es <> [[repeat 5 40; repeat 6 3]; [repeat 7 17]]
  | _ => False
  end.
Proof.
  split; [intros s ssps H; injection H as <-; cbn; lia|]. split; [repeat constructor|]. vm_compute. discriminate.
Qed.

(* the hypotheses of C06_timing_roundtrip are satisfiable: durations only in trex, sizes in tfhd, flags through
   first-sample-flags + trex, per-sample composition offsets; the encrypt side using a nil trex changes nothing *)
Example ex_timing :
  let tr := mkTrun false false false true true true 121 33554432
                   [mkTS 33554432 0 0 0; mkTS 0 0 0 500; mkTS 0 0 0 4294966296] in
  let tfhd := mkTfhd None (Some 17) None in
  let trex := Some (mkTrex 1024 1 16842752) in
  as_decoded tr = true /\
  trun_after_encrypt tfhd None tr 206 = Ok (set_data_offset tr 206) /\
  fragment_meta tfhd trex tr 90000 =
    [(mkTS 33554432 1024 17 0, 90000); (mkTS 16842752 1024 17 500, 91024); (mkTS 16842752 1024 17 4294966296, 92048)] /\
  fragment_meta tfhd None tr 90000 <> fragment_meta tfhd trex tr 90000.
Proof. vm_compute. repeat split; try reflexivity. discriminate. Qed.

(* the hypotheses of the byte-level entry theorem are satisfiable: an audio entry with an esds-like child and a sinf
   of its own, protected with the cbcs tenc InitProtect builds *)
Example ex_entry_bytes :
  let own := mkbox cc_sinf (frma_encode 2054847098) in
  let children := [mkbox 1702061171 [1; 2; 3]; own] in
  let t := mkTenc 1 0 0 1 0 (2 ^ 127 + 5) (repeat 7 8 ++ repeat 0 8) in
  tenc_wf t = true /\ forallb wf_box children = true /\
  lenN (protect_entry_bytes cc_enca 1836069985 (repeat 0 28) children cc_cbcs t) = 8 + 28 + 11 + 20 + 97 /\
  unprotect_entry_bytes 28 (protect_entry_bytes cc_enca 1836069985 (repeat 0 28) children cc_cbcs t)
  = Ok (entry_bytes 1836069985 (repeat 0 28) children, mkSD (Some 1836069985) (Some cc_cbcs) (Some (Some t))).
Proof. vm_compute. repeat split; reflexivity. Qed.

(* the fragment of C06-F4 with the repaired AddSample: an empty table for the first sample, Encode succeeds, the box
   (16 + 18 + 24 bytes) is read back as written *)
Example ex_mixed_repaired :
  let encs := [mkEnc (repeat 1 16) [] []; mkEnc (repeat 2 16) [mkSsp 5 16] []] in
  ivs_sized 16 encs = true /\ forallb subs_ok (map e_ssps encs) = true /\
  exists s box, senc_of_r senc_empty encs = Ok s /\ sn_ss s = [[]; [mkSsp 5 16]] /\ senc_encode s = Ok box /\
                senc_parse 16 box = Ok s /\ lenN box = 16 + (16 + 2) + (16 + 2 + 6).
Proof. split; [reflexivity|]. split; [reflexivity|]. exact mixed_subsamples_repaired. Qed.

(* a fragment mixing a sample without protection range (a single empty NAL unit) with a normal one: the pinned
   EncryptFragment model panics, the repaired one succeeds and the round trip restores both samples *)
Example ex_frag_roundtrip_mixed :
  let f := mkC [MTraf [mkT TOther 16 2; mkT TOther 20 3; mkT TTrun 60 4]]
               [[0; 0; 0; 0]; C07Spec.frames [101 :: repeat 7 139]] in
  let pf := protect_ranges avc_is_video (fun _ => Err) Cenc in
  encrypt_frag ex_E ex_E pf Cenc (repeat 3 16) (repeat 255 8) 0 0 500 8 100 f = Panic /\
  match encrypt_frag_r ex_E ex_E pf Cenc (repeat 3 16) (repeat 255 8) 0 0 500 8 100 f with
  | Ok e => decrypt_frag ex_E ex_E Cenc (repeat 3 16) [] 0 0 e = Ok (layout 500 (cf_children f) 8, cf_samples f)
            /\ ef_subs e = [[]; [mkSsp 96 48]]
  | _ => False
  end.
Proof. vm_compute. repeat split; reflexivity. Qed.

(* the hypotheses of C06_fragment_roundtrip_multi are satisfiable: three trafs (AVC cenc with two truns, audio cbcs,
   a clear track whose senc-like box is left alone), two pssh boxes, unknown boxes with 16-byte headers in traf and
   moof, a 16-byte mdat header, the truns' data interleaved in the payload *)
Example ex_multi :
  let di := [(1, Some (mkTI Cenc [] 0 0)); (2, Some (mkTI Cbcs (repeat 5 16) 0 0)); (3, None)] in
  let protfunc := fun tr : N => if tr =? 1 then protect_ranges avc_is_video (fun _ => Err) Cenc else audio_protect_ranges in
  let iv_of := fun tr : N => if tr =? 1 then repeat 255 16 else repeat 5 16 in
  let cs := [XOther 16 1; XPssh 32 2;
             XTraf (mkX 1 [mkT TOther 16 3; mkT TOther 20 4; mkT TSaio 20 5; mkT TTrun 40 6; mkT TSenc 80 7;
                           mkT TOther (xbox_size true 21) 8; mkT TTrun 32 9; mkT TSaiz 19 10] [] [] []
                         [C07Spec.frames [101 :: repeat 7 139; [6; 1]]; C07Spec.frames [65 :: repeat 9 120]]);
             XOther (xbox_size true 33) 11;
             XTraf (mkX 2 [mkT TOther 16 12; mkT TSenc 16 13; mkT TTrun 28 14; mkT TSaiz 17 15; mkT TSaio 20 16] [] [] []
                         [repeat 7 40; repeat 8 3]);
             XTraf (mkX 3 [mkT TOther 16 17; mkT TTrun 24 18; mkT TSenc 16 19] [] [] [] [repeat 1 9]);
             XPssh 40 20] in
  let poss := [[9; 0]; [200]; [150]] in
  trafs_ok protfunc iv_of di cs /\ poss_ok (xmoof_size cs + 16) poss /\
  match enc_children ex_E ex_E protfunc iv_of di (repeat 3 16) cs with
  | Ok cs_e =>
      decrypt_multi ex_E ex_E di (repeat 3 16) (xlayout 1000 cs_e 16 poss)
      = Ok (xlayout 1000 (clear_children di cs) 16 poss) /\
      map x_struct cs_e = map x_struct cs /\ cs_e <> cs /\
      xmoof_size (clear_children di cs) + 244 = xmoof_size cs
  | _ => False
  end.
Proof.
  split; [|split].
  - intros t Hin. cbn [In] in Hin.
    repeat (destruct Hin as [Hin|Hin]; [try discriminate; injection Hin as <-|]); try contradiction.
    + unfold traf_ok. cbn. split; [reflexivity|]. split; [reflexivity|]. discriminate.
    + unfold traf_ok. cbn. split; [reflexivity|]. split; [reflexivity|]. intros _. split; [reflexivity|].
      intros s ssps Hs Hp. injection Hp as <-. unfold fits. cbn [map sumN].
      destruct Hs as [<-|[<-|[]]]; cbn; lia.
    + exact I.
  - repeat constructor.
  - vm_compute. repeat split; try reflexivity. discriminate.
Qed.

(* the hypotheses of C06_entry_bytes_roundtrip / C06_entry_typed_roundtrip are satisfiable: a visual entry with typed
   fields, an avcC-like child and an unknown child with a 16-byte header BEFORE the sinf, a btrt-like child AFTER it;
   a third-party entry with arbitrary reserved bytes is normalised once and keeps its typed fields *)
Example ex_entry_typed :
  let v := mkVF 1 1920 1080 4718592 4718592 1 [109; 112; 52; 102; 102] in
  let fx := vfixed_encode v in
  let large := [0; 0; 0; 1; 76; 82; 71; 69; 0; 0; 0; 0; 0; 0; 0; 19; 7; 7; 7] in
  let before := [mkbox 1635148611 [1; 100; 0; 31]; large] in
  let after := [mkbox 1651798644 (repeat 0 12)] in
  let t := mkTenc 1 1 9 1 0 77 (repeat 5 16) in
  let dirty := repeat 255 6 ++ skipn 6 (firstn 74 fx) ++ [0; 32; 1; 2] in
  vfixed_wf v = true /\ tenc_wf t = true /\ fixed_reencode SVisual fx = Ok fx /\ length fx = 78%nat /\
  forallb wf_box16 before = true /\ forallb wf_box16 after = true /\ no_sinf_box after = true /\
  wf_box large = false /\
  unprotect_entry_typed SVisual (protect_entry_bytes_at cc_encv cc_avc1 fx before after cc_cbcs t)
  = Ok (entry_bytes cc_avc1 fx (before ++ after), mkSD (Some cc_avc1) (Some cc_cbcs) (Some (Some t))) /\
  dirty <> fx /\ fixed_reencode SVisual dirty = Ok fx /\
  unprotect_entry_typed SVisual (protect_entry_bytes_at cc_encv cc_avc1 dirty before after cc_cbcs t)
  = Ok (entry_bytes cc_avc1 fx (before ++ after), mkSD (Some cc_avc1) (Some cc_cbcs) (Some (Some t))).
Proof. vm_compute. repeat split; try reflexivity; discriminate. Qed.

(* the hypotheses of C06_timing_roundtrip_multi are satisfiable: two truns with different signalling; the decode times
   of the second trun continue after the (trex-resolved) durations of the first *)
Example ex_timing_multi :
  let tr1 := mkTrun false false false true true true 121 33554432 [mkTS 33554432 0 0 0; mkTS 0 0 0 500] in
  let tr2 := mkTrun true true true false false true 155 0 [mkTS 16842752 1000 9 0] in
  let tfhd := mkTfhd None (Some 17) None in
  let trex := Some (mkTrex 1024 1 16842752) in
  as_decoded tr1 = true /\ as_decoded tr2 = true /\
  traf_meta tfhd trex [tr1; tr2] 90000 =
    [(mkTS 33554432 1024 17 0, 90000); (mkTS 16842752 1024 17 500, 91024); (mkTS 16842752 1000 9 0, 92048)] /\
  traf_meta tfhd None [tr1; tr2] 90000 <> traf_meta tfhd trex [tr1; tr2] 90000.
Proof. vm_compute. repeat split; try reflexivity. discriminate. Qed.
