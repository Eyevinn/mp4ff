(* C06MultiProofs.v — DecryptFragment on k trafs x m truns with pssh boxes in the moof: every data offset and the
   mdat position move by exactly the number of bytes the moof shrinks; the box tree is the clear one; the samples of
   every protected traf come back.  Lemmas for C06_decrypt_preserves_offsets / C06_fragment_roundtrip_multi. *)
From V.lib Require Import Base.
From V.c07 Require Import C07Model.
From V.c06 Require Import C06Lib C06Model C06StructProofs C06SampleProofs C06MultiModel.

(* ---------------------------------------------------------------- integer widths *)
Lemma sub_i32_exact o removed :
  removed < 18446744073709551616 ->
  (-2147483648 <= o - Z.of_N removed)%Z -> (o < 2147483648)%Z ->
  sub_i32 o removed = (o - Z.of_N removed)%Z.
Proof.
  intros Hr Hlo Hhi. unfold sub_i32, wrap32s, u64. rewrite (N.mod_small removed) by exact Hr. lia.
Qed.

Lemma sub_u64_exact a b :
  b <= a -> a < 18446744073709551616 -> sub_u64 a b = a - b.
Proof.
  intros Hb Ha. unfold sub_u64, u64. rewrite (N.mod_small b) by lia.
  replace (a + 18446744073709551616 - b) with ((a - b) + 1 * 18446744073709551616) by lia.
  rewrite N.mod_add by discriminate. apply N.mod_small. lia.
Qed.

(* ---------------------------------------------------------------- sizes *)
Lemma reb_eq_x ch :
  remove_encryption_boxes ch
  = (filter (fun b => negb (is_prot_kind_x (tk b))) ch, sumN (map tsize (filter (fun b => is_prot_kind_x (tk b)) ch))).
Proof. exact (reb_eq ch). Qed.

(* the bytes a moof child loses in the first loop: the protection boxes of a traf whose track is protected *)
Definition removed_of (di : list (N * option tinfo)) (c : xchild) : N :=
  match c with
  | XTraf t => match find_track di (x_track t) with Some _ => snd (remove_encryption_boxes (x_children t)) | None => 0 end
  | _ => 0
  end.

Lemma clear_child_removed di c : xchild_size (clear_child di c) + removed_of di c = xchild_size c.
Proof.
  destruct c as [t|s i|s i]; cbn [clear_child removed_of]; [|lia|lia].
  destruct (find_track di (x_track t)); [|lia].
  unfold xchild_size. cbn [to_mchild mchild_size x_children]. unfold traf_size.
  pose proof (reb_size (x_children t)) as H. rewrite reb_eq_x in *. cbn [fst snd] in *. lia.
Qed.

Lemma clear_child_size di c : xchild_size (clear_child di c) <= xchild_size c.
Proof. pose proof (clear_child_removed di c). lia. Qed.

Lemma clear_children_removed di cs :
  sumN (map xchild_size (map (clear_child di) cs)) + sumN (map (removed_of di) cs) = sumN (map xchild_size cs).
Proof.
  induction cs as [|c t IH]; [reflexivity|]. cbn [map sumN]. pose proof (clear_child_removed di c). lia.
Qed.

Lemma xremove_psshs_eq cs :
  xremove_psshs cs = (filter (fun c => negb (x_is_pssh c)) cs, sumN (map xchild_size (filter x_is_pssh cs))).
Proof.
  unfold xremove_psshs. destruct (existsb x_is_pssh cs) eqn:E; [reflexivity|].
  destruct (filter_none x_is_pssh cs (existsb_none _ _ E)) as [-> ->]. reflexivity.
Qed.

(* ---------------------------------------------------------------- structure of the first loop, any input *)
Lemma scheme_known {A} (sch : scheme) (x : res A) :
  sch <> SchemeOther -> match sch with SchemeOther => Err | _ => x end = x.
Proof. destruct sch; congruence. Qed.

Section General.
  Variable E : list N -> list N -> list N.
  Variable D : list N -> list N -> list N.

  Lemma decrypt_trafs_struct di key cs r :
    decrypt_trafs E D di key cs = Ok r ->
    map x_struct (fst r) = map x_struct (map (clear_child di) cs) /\ snd r = sumN (map (removed_of di) cs).
  Proof.
    revert r. induction cs as [|c t IH]; intros r H; cbn [decrypt_trafs] in H.
    - injection H as <-. split; reflexivity.
    - destruct c as [x|s i|s i]; [destruct (find_track di (x_track x)) as [ti|] eqn:Ef|..].
      1: { rewrite scheme_known in H by (intros Eo; rewrite Eo in H; discriminate).
           destruct (has_senc (x_children x)); [|discriminate]. cbn [negb] in H.
           apply rbind_Ok in H as (samples & _ & H). apply rbind_Ok in H as (r' & Er & H). injection H as <-.
           destruct (IH r' Er) as [I1 I2]. cbn [fst snd map sumN clear_child removed_of].
           rewrite Ef, I1, I2, reb_eq_x. split; reflexivity. }
      all: apply rbind_Ok in H as (r' & Er & H); injection H as <-; destruct (IH r' Er) as [I1 I2];
        cbn [fst snd map sumN clear_child removed_of]; rewrite ?Ef, I1, I2; split; reflexivity.
  Qed.

  Lemma x_struct_filter cs :
    map x_struct (filter (fun c => negb (x_is_pssh c)) cs) = filter (fun c => negb (x_is_pssh c)) (map x_struct cs).
  Proof.
    induction cs as [|c t IH]; [reflexivity|]. cbn [filter map].
    assert (Hp : x_is_pssh (x_struct c) = x_is_pssh c) by (destruct c; reflexivity).
    rewrite Hp. destruct (x_is_pssh c); cbn [negb map]; rewrite IH; reflexivity.
  Qed.

  Lemma x_struct_shift removed cs :
    map x_struct (map (shift_traf removed) cs) = map (shift_traf removed) (map x_struct cs).
  Proof. rewrite !map_map. apply map_ext. intros c. destruct c; reflexivity. Qed.

  Lemma filter_pssh_size_struct (a b : list xchild) :
    map x_struct a = map x_struct b -> map xchild_size a = map xchild_size b.
  Proof.
    assert (H : forall c, xchild_size c = xchild_size (x_struct c)) by (intros c; destruct c; reflexivity).
    intros Hs. rewrite (map_ext _ _ H a), (map_ext _ _ H b), <- !(map_map x_struct xchild_size), Hs. reflexivity.
  Qed.

  (* third-party content, k trafs x m truns, pssh boxes in the moof: whenever DecryptFragment succeeds there is ONE
     number `removed` = the number of bytes by which the moof shrinks (protection boxes of all protected trafs + all
     pssh boxes), the box tree afterwards is the clear tree (x_struct: the tree without the crypto side data), every
     data offset of every trun of every traf has become o - removed in int32 arithmetic, and the mdat position
     has moved by the same amount *)
  Lemma decrypt_multi_general di key f g :
    decrypt_multi E D di key f = Ok g ->
    exists removed,
      xmoof_size (xf_children g) + removed = xmoof_size (xf_children f) /\
      map x_struct (xf_children g) = map (shift_traf removed) (map x_struct (clear_children di (xf_children f))) /\
      xf_moof_start g = xf_moof_start f /\
      xf_mdat_start g = (if xf_moof_start f <? xf_mdat_start f then sub_u64 (xf_mdat_start f) removed
                         else xf_mdat_start f).
  Proof.
    unfold decrypt_multi. intros H. apply rbind_Ok in H as (r & Er & H).
    destruct (decrypt_trafs_struct _ _ _ _ Er) as [S1 S2].
    rewrite xremove_psshs_eq in H. injection H as <-.
    exists (snd r + sumN (map xchild_size (filter x_is_pssh (fst r)))).
    cbn [xf_children xf_moof_start xf_mdat_start]. split; [|split; [|split; reflexivity]].
    - pose proof (filter_split_sum x_is_pssh xchild_size (fst r)) as Hf.
      pose proof (clear_children_removed di (xf_children f)) as Hc.
      rewrite <- (filter_pssh_size_struct _ _ S1), <- S2 in Hc.
      unfold xmoof_size. rewrite map_map, (map_ext _ xchild_size) by (intros c; destruct c; reflexivity). lia.
    - rewrite x_struct_shift. f_equal. unfold clear_children. rewrite !x_struct_filter, S1. reflexivity.
  Qed.

End General.

(* the variant that does not count the pssh bytes shifts the offsets by too little: one traf, one trun, one pssh *)
Lemma pssh_undercount_refuted :
  let E := fun (_ b : list N) => b in
  let di := [(1, Some (mkTI Cenc [] 0 0))] in
  let f := mkXF 0 [XOther 16 1; XPssh 32 2;
                   XTraf (mkX 1 [mkT TOther 16 3; mkT TTrun 24 4; mkT TSenc 16 5] [128%Z] [] [] [])] 120 in
  let clear := [XOther 16 1; XTraf (mkX 1 [mkT TOther 16 3; mkT TTrun 24 4] [80%Z] [] [] [])] in
  xmoof_size (xf_children f) = 120 /\ xmoof_size clear = 72 /\
  decrypt_multi E E di [] f = Ok (mkXF 0 clear 72) /\
  decrypt_multi_undercount E E di [] f
  = Ok (mkXF 0 [XOther 16 1; XTraf (mkX 1 [mkT TOther 16 3; mkT TTrun 24 4] [112%Z] [] [] [])] 104).
Proof. repeat split; vm_compute; reflexivity. Qed.

(* ---------------------------------------------------------------- layout lemmas *)
Lemma set_positions_sizes b cs poss : map xchild_size (set_positions b cs poss) = map xchild_size cs.
Proof.
  revert poss. induction cs as [|c t IH]; intros poss; [reflexivity|].
  destruct c; cbn [set_positions map]; rewrite IH; reflexivity.
Qed.

Lemma set_positions_filter b cs poss :
  filter (fun c => negb (x_is_pssh c)) (set_positions b cs poss)
  = set_positions b (filter (fun c => negb (x_is_pssh c)) cs) poss.
Proof.
  revert poss. induction cs as [|c t IH]; intros poss; [reflexivity|].
  destruct c; cbn [set_positions filter x_is_pssh negb]; rewrite IH; reflexivity.
Qed.

Lemma set_positions_pssh b cs poss :
  map xchild_size (filter x_is_pssh (set_positions b cs poss)) = map xchild_size (filter x_is_pssh cs).
Proof.
  revert poss. induction cs as [|c t IH]; intros poss; [reflexivity|].
  destruct c; cbn [set_positions filter x_is_pssh map]; rewrite IH; reflexivity.
Qed.

Definition poss_ok (b : N) (poss : list (list N)) : Prop :=
  Forall (fun p => Forall (fun q => b + q < 2147483648) p) poss.

Lemma set_positions_shift b removed cs poss :
  removed <= b -> poss_ok b poss ->
  map (shift_traf removed) (set_positions b cs poss) = set_positions (b - removed) cs poss.
Proof.
  intros Hr. revert poss. induction cs as [|c t IH]; intros poss Hp; [reflexivity|].
  destruct c as [x|s i|s i]; cbn [set_positions map shift_traf]; [|rewrite (IH poss Hp); reflexivity ..].
  cbn [x_track x_children x_offsets x_ivs x_subs x_data].
  assert (Hhd : Forall (fun q => b + q < 2147483648) (hd [] poss)) by (destruct Hp; [constructor|assumption]).
  assert (Htl : poss_ok b (tl poss)) by (destruct Hp; [constructor|assumption]).
  rewrite (IH (tl poss) Htl). f_equal. f_equal. f_equal. rewrite map_map.
  induction (hd [] poss) as [|q l IHl]; [reflexivity|].
  inversion Hhd as [|? ? Hq Hl]; subst. cbn [map]. rewrite (IHl Hl). f_equal.
  rewrite sub_i32_exact; lia.
Qed.

(* ---------------------------------------------------------------- the round trip *)
Section RoundTrip.
  Variable E : list N -> list N -> list N.
  Variable D : list N -> list N -> list N.
  Variable protfunc : N -> list N -> res (list ssp).
  Variable iv_of : N -> list N.
  Variable di : list (N * option tinfo).
  Variable key : list N.

  Hypothesis HE : forall k b, length (E k b) = 16%nat.
  Hypothesis HD : forall k b, length (D k b) = 16%nat.
  Hypothesis HDE : forall k b, length b = 16%nat -> D k (E k b) = b.
  Hypothesis Hkey : key_ok key = true.

  (* per protected traf: it has a senc box, its IV has 16 bytes; cbcs: the tenc constant IV is that IV and the
     sub-sample maps fit their samples *)
  Definition traf_ok (t : xtraf) : Prop :=
    match find_track di (x_track t) with
    | None => True
    | Some ti =>
        has_senc (x_children t) = true /\ length (iv_of (x_track t)) = 16%nat /\
        (ti_sch ti = Cbcs ->
         ti_constiv ti = iv_of (x_track t) /\
         forall s ssps, In s (x_data t) -> protfunc (x_track t) s = Ok ssps -> fits s ssps)
    end.

  Definition trafs_ok (cs : list xchild) : Prop := forall t, In (XTraf t) cs -> traf_ok t.

  (* the first loop on the packager's output: every protected traf gets its samples back and loses its protection
     boxes, whatever its truns' offsets *)
  Lemma roundtrip_trafs cs : forall cs_e b poss,
    trafs_ok cs ->
    enc_children E D protfunc iv_of di key cs = Ok cs_e ->
    decrypt_trafs E D di key (set_positions b cs_e poss)
    = Ok (set_positions b (map (clear_child di) cs) poss, sumN (map (removed_of di) cs)) /\
    map xchild_size cs_e = map xchild_size cs.
  Proof.
    induction cs as [|c t IH]; intros cs_e b poss Hok Henc; cbn [enc_children] in Henc.
    - injection Henc as <-. split; reflexivity.
    - assert (Hok' : trafs_ok t) by (intros x Hx; apply Hok; right; exact Hx).
      destruct c as [x|s i|s i]; [destruct (find_track di (x_track x)) as [ti|] eqn:Ef|..].
      1: { pose proof (Hok x (or_introl eq_refl)) as Hx. unfold traf_ok in Hx. unfold enc_traf in Henc.
           rewrite Ef in Hx, Henc. destruct Hx as (Hsenc & Hiv & Hcb).
           apply rbind_Ok in Henc as (x' & Hx' & Henc). apply rbind_Ok in Hx' as (encs & Ee & Hx').
           apply rbind_Ok in Henc as (r & Er & Henc). injection Hx' as <-. injection Henc as <-.
           assert (Hsok : scheme_ok E D (protfunc (x_track x)) (ti_sch ti) key (iv_of (x_track x)) (ti_constiv ti) (x_data x)).
           { destruct (ti_sch ti); try exact I. destruct (Hcb eq_refl) as [-> Hfit].
             split; [repeat split; assumption|split; [reflexivity|exact Hfit]]. }
           destruct (samples_roundtrip _ _ _ _ _ _ _ (ti_cb ti) (ti_sb ti) _ _ Hiv Hsok Ee) as [Hd _].
           destruct (IH r b (tl poss) Hok' Er) as [I1 I2].
           cbn [set_positions decrypt_trafs x_track x_children x_offsets x_ivs x_subs x_data map sumN clear_child removed_of].
           rewrite Ef, scheme_known, Hsenc by (intros Eo; rewrite Eo in Ee; discriminate). cbn [negb].
           rewrite Hd. cbn [rbind]. rewrite I1. cbn [rbind fst snd]. rewrite reb_eq_x, I2. split; reflexivity. }
      1: { unfold enc_traf in Henc. rewrite Ef in Henc. cbn [rbind] in Henc.
           apply rbind_Ok in Henc as (r & Er & Henc). injection Henc as <-.
           destruct (IH r b (tl poss) Hok' Er) as [I1 I2].
           cbn [set_positions decrypt_trafs x_track map sumN clear_child removed_of].
           rewrite Ef, I1. cbn [rbind fst snd]. rewrite I2. split; reflexivity. }
      all: apply rbind_Ok in Henc as (r & Er & Henc); injection Henc as <-;
        destruct (IH r b poss Hok' Er) as [I1 I2]; cbn [set_positions decrypt_trafs map sumN clear_child removed_of];
        rewrite I1; cbn [rbind fst snd]; rewrite I2; split; reflexivity.
  Qed.

  (* the whole fragment: the protected layout (k trafs, m truns each, protection boxes and pssh boxes anywhere, every
     trun addressing its own position of the mdat payload) decrypts to the clear layout: the clear box tree, every
     trun still addressing the same payload position, the mdat right behind the shorter moof, every sample byte of
     every protected traf restored *)
  Lemma fragment_roundtrip_multi cs cs_e start mdat_hdr poss :
    trafs_ok cs ->
    enc_children E D protfunc iv_of di key cs = Ok cs_e ->
    poss_ok (xmoof_size cs + mdat_hdr) poss ->
    start + xmoof_size cs < 18446744073709551616 ->
    decrypt_multi E D di key (xlayout start cs_e mdat_hdr poss)
    = Ok (xlayout start (clear_children di cs) mdat_hdr poss).
  Proof.
    intros Hok Henc Hp H64.
    destruct (roundtrip_trafs cs cs_e (xmoof_size cs_e + mdat_hdr) poss Hok Henc) as [R1 R3].
    assert (Hsz : xmoof_size cs_e = xmoof_size cs) by (unfold xmoof_size; rewrite R3; reflexivity).
    unfold decrypt_multi, xlayout. cbn [xf_children xf_moof_start xf_mdat_start]. rewrite R1. cbn [rbind fst snd].
    rewrite xremove_psshs_eq, set_positions_filter, set_positions_pssh.
    fold (clear_children di cs).
    set (n := sumN (map (removed_of di) cs)).
    set (n2 := sumN (map xchild_size (filter x_is_pssh (map (clear_child di) cs)))).
    pose proof (filter_split_sum x_is_pssh xchild_size (map (clear_child di) cs)) as Hf. fold n2 in Hf.
    pose proof (clear_children_removed di cs) as Hr. fold n in Hr.
    assert (Hc : xmoof_size (clear_children di cs) + (n + n2) = xmoof_size cs).
    { unfold xmoof_size, clear_children. lia. }
    rewrite Hsz, set_positions_shift; [|lia|exact Hp].
    replace (xmoof_size cs + mdat_hdr - (n + n2)) with (xmoof_size (clear_children di cs) + mdat_hdr) by lia.
    assert (E1 : (start <? start + xmoof_size cs) = true) by (apply N.ltb_lt; unfold xmoof_size; lia).
    rewrite E1, sub_u64_exact by lia.
    f_equal. f_equal. lia.
  Qed.
End RoundTrip.

(* the clear tree has no protection box in a protected traf and no pssh; a clear tree is a fixed point *)
Lemma clear_children_clean di cs :
  forall c, In c (clear_children di cs) ->
  x_is_pssh c = false /\
  (forall t, c = XTraf t -> find_track di (x_track t) <> None ->
             forallb (fun b => negb (is_prot_kind_x (tk b))) (x_children t) = true).
Proof.
  intros c Hin. unfold clear_children in Hin. apply filter_In in Hin. destruct Hin as [Hin Hp].
  split; [destruct (x_is_pssh c); [discriminate|reflexivity]|].
  intros t -> Hf. apply in_map_iff in Hin. destruct Hin as (c0 & Hc0 & _).
  destruct c0 as [t0|s i|s i]; cbn [clear_child] in Hc0; try discriminate.
  destruct (find_track di (x_track t0)) eqn:Ef.
  - injection Hc0 as <-. cbn [x_children]. apply forallb_forall. intros b Hb. apply filter_In in Hb. apply Hb.
  - injection Hc0 as <-. congruence.
Qed.

(* ---------------------------------------------------------------- finding C06-F7: the pinned text *)
(* two trafs of ONE protected track (cenc, one 3-byte sample each, own IVs): the text of the tree restores both; the
   pinned text (samples of the FIRST traf of the track for every traf) decrypts the first traf twice - with its own senc
   and then with the second traf's senc (here the same key stream: back to the encrypted bytes) - and never touches the
   second: DecryptFragment returns nil, the box tree is the clear one, and BOTH trafs still hold their encrypted bytes *)
Definition f7_E (k b : list N) : list N := map (fun x => (x + 1) mod 256) (firstn 16 (b ++ repeat 0 16)).

Lemma first_traf_samples_refuted :
  let di := [(1, Some (mkTI Cenc [] 0 0))] in
  let key := repeat 3 16 in
  let iv_of := fun _ : N => repeat 7 16 in
  let cs := [XOther 16 1;
             XTraf (mkX 1 [mkT TOther 16 2; mkT TTrun 20 3; mkT TSenc 32 4] [] [] [] [[10; 20; 30]]);
             XTraf (mkX 1 [mkT TOther 16 5; mkT TTrun 20 6; mkT TSenc 32 7] [] [] [] [[40; 50; 60]])] in
  match enc_children f7_E f7_E (fun _ _ => Ok []) iv_of di key cs with
  | Ok cs_e =>
      let f := xlayout 0 cs_e 8 [[0]; [3]] in
      decrypt_multi f7_E f7_E di key f = Ok (xlayout 0 (clear_children di cs) 8 [[0]; [3]]) /\
      match decrypt_multi_pinned f7_E f7_E di key f with
      | Ok g =>
          map (fun c => match c with XTraf t => x_data t | _ => [] end) (xf_children g)
          = [[]; [[2; 28; 22]]; [[32; 58; 52]]] /\
          map (fun c => match c with XTraf t => x_data t | _ => [] end) cs_e = [[]; [[2; 28; 22]]; [[32; 58; 52]]] /\
          map x_struct (xf_children g) = map x_struct (xf_children (xlayout 0 (clear_children di cs) 8 [[0]; [3]]))
      | _ => False
      end
  | _ => False
  end.
Proof. vm_compute. repeat split; reflexivity. Qed.
