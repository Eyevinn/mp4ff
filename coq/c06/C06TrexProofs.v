(* C06TrexProofs.v — round trip with the trex as a parameter of both sides; whole files by induction over the
   fragment list. *)
From V.lib Require Import Base.
From V.c07 Require Import C07Model.
From V.c06 Require Import C06Lib C06Model C06StructProofs C06SampleProofs C06FragModel C06FragProofs C06TrexModel.

Lemma split_spec : forall sizes data samples rest,
  split_samples sizes data = Ok (samples, rest) ->
  concat samples ++ rest = data /\ map (fun s => lenN s) samples = sizes.
Proof.
  induction sizes as [|z t IH]; intros data samples rest H; cbn [split_samples] in H.
  - injection H as <- <-. split; reflexivity.
  - destruct (lenN data <? z) eqn:El; [discriminate|]. apply rbind_Ok in H as ([ss r] & Es & H).
    cbn [fst snd] in H. injection H as <- <-.
    destruct (IH _ _ _ Es) as [Hc Hm]. cbn [concat map]. rewrite <- app_assoc, Hc, firstn_skipn, Hm.
    split; [reflexivity|]. f_equal. apply N.ltb_ge in El. unfold lenN in *. rewrite firstn_length. lia.
Qed.

Lemma split_concat : forall dl rest, split_samples (map (fun s => lenN s) dl) (concat dl ++ rest) = Ok (dl, rest).
Proof.
  induction dl as [|d t IH]; intros rest; [reflexivity|].
  cbn [map concat split_samples]. rewrite <- app_assoc.
  assert (El : lenN (d ++ concat t ++ rest) <? lenN d = false) by (apply N.ltb_ge; rewrite lenN_app; lia).
  rewrite El, firstn_app_exact, skipn_app_exact, IH by (unfold lenN; lia). reflexivity.
Qed.

Lemma lens_eq (a b : list (list N)) :
  map (@length N) a = map (@length N) b -> map (fun s => lenN s) a = map (fun s => lenN s) b.
Proof. intros H. unfold lenN. rewrite <- !(map_map (@length N) N.of_nat), H. reflexivity. Qed.

Lemma efrag_eta e : mkEF (ef_frag e) (ef_ivs e) (ef_subs e) (ef_data e) = e.
Proof. destruct e; reflexivity. Qed.

(* whatever the scheme: if the fragment round trip holds for the samples the encrypt side finds and encryption keeps
   their lengths, the payload is restored when both sides resolve the sample sizes alike *)
Lemma trex_roundtrip_found E D protfunc sch key iv constiv cb sb start mdat_hdr ids trex_e trex_d f e pl :
  sample_sizes trex_d (pf_sizing f) = sample_sizes trex_e (pf_sizing f) ->
  (forall samples rest e0,
     split_samples (sample_sizes trex_e (pf_sizing f)) (pf_payload f) = Ok (samples, rest) ->
     encrypt_frag E D protfunc sch key iv cb sb start mdat_hdr ids (mkC (pf_children f) samples) = Ok e0 ->
     decrypt_frag E D sch key constiv cb sb e0 = Ok (layout start (pf_children f) mdat_hdr, samples) /\
     map (@length N) (ef_data e0) = map (@length N) samples) ->
  encrypt_frag_trex E D protfunc sch key iv cb sb start mdat_hdr ids trex_e f = Ok (e, pl) ->
  decrypt_frag_trex E D sch key constiv cb sb trex_d (pf_sizing f) e pl = Ok (layout start (pf_children f) mdat_hdr, pf_payload f).
Proof.
  intros Hsz Hrt H. unfold encrypt_frag_trex in H.
  apply rbind_Ok in H as ([samples rest] & Es & H). apply rbind_Ok in H as (e0 & Ee & H). cbn [fst snd] in *.
  injection H as <- <-.
  destruct (Hrt samples rest e0 Es Ee) as [Hd Hl]. destruct (split_spec _ _ _ _ Es) as [Hc Hm].
  unfold decrypt_frag_trex. rewrite Hsz, <- Hm, <- (lens_eq _ _ Hl), split_concat. cbn [rbind fst snd].
  rewrite efrag_eta, Hd. cbn [rbind fst snd]. rewrite Hc. reflexivity.
Qed.

(* either scheme, the same trex on both sides *)
Lemma trex_roundtrip E D protfunc sch key iv constiv cb sb start mdat_hdr ids trex f e pl :
  (forall samples rest, split_samples (sample_sizes trex (pf_sizing f)) (pf_payload f) = Ok (samples, rest) ->
     scheme_ok E D protfunc sch key (pad_iv iv) constiv samples) ->
  clean_moof (pf_children f) = true -> nr_trafs (pf_children f) = 1%nat ->
  encrypt_frag_trex E D protfunc sch key iv cb sb start mdat_hdr ids trex f = Ok (e, pl) ->
  decrypt_frag_trex E D sch key constiv cb sb trex (pf_sizing f) e pl = Ok (layout start (pf_children f) mdat_hdr, pf_payload f).
Proof.
  intros Hok Hc Hn. apply trex_roundtrip_found; [reflexivity|]. intros samples rest e0 Es Ee.
  apply (fragment_roundtrip E D protfunc sch key iv constiv cb sb start mdat_hdr ids (mkC (pf_children f) samples) e0);
    [exact (Hok _ _ Es)|exact Hc|exact Hn|left; exact Ee].
Qed.

(* the guard trex_d = trex_e is needed: encrypting with a nil trex (sizes 0: nothing is encrypted, although senc /
   saiz / saio are written) and decrypting with the real one runs the cipher over clear payload *)
Lemma trex_mismatch_refuted :
  let E := fun (_ _ : list N) => repeat 1 16 in
  let f := mkP [MOther 16 1; MTraf [mkT TOther 16 2; mkT TTrun 20 3]] (mkSizing 2 None None) [10; 20; 30; 40; 50; 60; 70; 80] in
  exists e pl out,
    encrypt_frag_trex E E (fun _ => Ok []) Cenc (repeat 3 16) (repeat 0 16) 0 0 100 8 50 None f = Ok (e, pl) /\
    pl = pf_payload f /\
    decrypt_frag_trex E E Cenc (repeat 3 16) [] 0 0 (Some 4) (pf_sizing f) e pl = Ok out /\
    snd out <> pf_payload f.
Proof. do 3 eexists. split; [vm_compute; reflexivity|]. split; [reflexivity|]. split; [vm_compute; reflexivity|]. discriminate. Qed.

(* ---------------------------------------------------------------- whole files *)
(* either scheme: induction over the fragment list *)
Lemma file_roundtrip E D protfunc sch key iv constiv cb sb : forall fs start_e ids es,
  Forall (fun p : cfrag * N => clean_moof (cf_children (fst p)) = true /\ nr_trafs (cf_children (fst p)) = 1%nat /\
                               scheme_ok E D protfunc sch key (pad_iv iv) constiv (cf_samples (fst p))) fs ->
  encrypt_file E D protfunc sch key iv cb sb start_e ids fs = Ok es ->
  exists gs, decrypt_file E D sch key constiv cb sb es = Ok gs /\
    (forall start_c, reencode start_c gs = layout_file start_c fs) /\
    map (fun g => snd (fst g)) gs = map (fun p => cf_samples (fst p)) fs /\
    map (fun g => f_moof_start (fst (fst g))) gs = enc_positions start_e fs es.
Proof.
  induction fs as [|[f h] t IH]; intros start_e ids es Hall H; cbn [encrypt_file] in H.
  - injection H as <-. exists []. repeat split; reflexivity.
  - inversion Hall as [|x l (Hc & Hn & Hok) Ht]. subst x l. cbn [fst] in Hc, Hn, Hok.
    apply rbind_Ok in H as (e & Ee & H). apply rbind_Ok in H as (r & Er & H). injection H as <-.
    destruct (fragment_roundtrip E D protfunc sch key iv constiv cb sb start_e h ids f e Hok Hc Hn (or_introl Ee)) as [Hd Hl].
    (* the encrypted moof is the clear one plus the three boxes *)
    destruct (encrypt_frag_inv _ _ _ _ _ _ _ _ _ _ _ _ _ (or_introl Ee)) as (encs & a & b & _ & _ & He).
    assert (Hm : moof_size (f_children (ef_frag e)) = moof_size (cf_children f) + (a + 20 + b))
      by (rewrite He; apply moof_size_encrypted; exact Hn).
    destruct (IH _ _ _ Ht Er) as (gs & Hg & Hre & Hs & Hp).
    exists ((layout start_e (cf_children f) h, cf_samples f, h) :: gs).
    cbn [decrypt_file]. rewrite Hd. cbn [rbind fst snd]. rewrite Hg. cbn [rbind].
    split; [reflexivity|]. split; [|split].
    + intros start_c. cbn [reencode layout_file layout f_children]. rewrite Hre. reflexivity.
    + cbn [map fst snd]. rewrite Hs. reflexivity.
    + cbn [map fst snd enc_positions layout f_moof_start]. rewrite Hp, (lens_eq _ _ Hl). f_equal. f_equal. lia.
Qed.
