(* C06FixedProofs.v — the typed fixed fields of the sample entry come back verbatim; the entry with the sinf at any
   position among its children is turned into the clear entry: every byte but the size field, the 4cc and the sinf
   child is identical.  Lemmas for C06_entry_fixed_fields / C06_entry_bytes_roundtrip. *)
From V.lib Require Import Base.
From V.c07 Require Import C07Model C07Spec C07CryptProofs.
From V.c06 Require Import C06Lib C06InitModel C06SinfModel C06SinfProofs C06FixedModel.

Lemma cut_app {A} (a b : list A) n : length a = n -> cut n (a ++ b) = (a, b).
Proof.
  intros <-. unfold cut. rewrite firstn_app, Nat.sub_diag, firstn_all, skipn_app, Nat.sub_diag, skipn_all.
  cbn [firstn skipn app]. rewrite app_nil_r. reflexivity.
Qed.

Lemma be_field k x : x < 256 ^ N.of_nat k -> be (be_bytes k x) = x.
Proof. intros H. rewrite be_be_bytes. apply N.mod_small. exact H. Qed.

Lemma be_single x : be [x] = x.
Proof. unfold be. cbn [fold_left]. lia. Qed.

(* ---------------------------------------------------------------- typed fields: decode (encode v) = v *)
Lemma vfixed_encode_len v : vfixed_wf v = true -> length (vfixed_encode v) = 78%nat.
Proof.
  unfold vfixed_wf. intros H. apply andb_true_iff in H. destruct H as [H _]. apply andb_true_iff in H. destruct H as [_ H].
  apply N.leb_le in H. unfold vfixed_encode. rewrite !app_length, !repeat_length, !be_bytes_length. cbn [length].
  unfold lenN in H. lia.
Qed.

Lemma afixed_encode_len a : length (afixed_encode a) = 28%nat.
Proof. unfold afixed_encode. rewrite !app_length, !repeat_length, !be_bytes_length. reflexivity. Qed.

Lemma vfixed_codec v : vfixed_wf v = true -> vfixed_decode (vfixed_encode v) = Ok v.
Proof.
  unfold vfixed_wf. intros H. repeat (apply andb_true_iff in H; destruct H as [H ?]).
  repeat match goal with H : (_ <? _) = true |- _ => apply N.ltb_lt in H end.
  match goal with H : (_ <=? _) = true |- _ => apply N.leb_le in H end.
  unfold vfixed_decode, vfixed_encode.
  rewrite !cut_app by first [apply repeat_length|apply be_bytes_length|reflexivity].
  rewrite be_single.
  assert (Hu : u8 (lenN (vf_cname v)) = lenN (vf_cname v)) by (unfold u8; apply N.mod_small; lia).
  rewrite Hu. replace (31 <? lenN (vf_cname v)) with false by (symmetry; apply N.ltb_ge; lia).
  rewrite !be_field by (cbn; lia).
  unfold lenN. rewrite Nat2N.id, firstn_app_exact by reflexivity.
  destruct v; reflexivity.
Qed.

Lemma afixed_codec a : afixed_wf a = true -> afixed_decode (afixed_encode a) = a.
Proof.
  unfold afixed_wf. intros H. repeat (apply andb_true_iff in H; destruct H as [H ?]).
  repeat match goal with H : (_ <? _) = true |- _ => apply N.ltb_lt in H end.
  unfold afixed_decode, afixed_encode.
  rewrite !cut_app by first [apply repeat_length|apply be_bytes_length].
  rewrite !be_field by (cbn; lia). destruct a; reflexivity.
Qed.

(* what a decoder returns is within the field widths: the canonical re-encoding is a fixed point *)
Lemma be_bound l : bytes_ok l = true -> be l < 256 ^ N.of_nat (length l).
Proof.
  intros H. rewrite <- (be_bytes_be l H) at 1. rewrite be_be_bytes. apply N.mod_upper_bound.
  apply N.pow_nonzero. discriminate.
Qed.

Lemma bytes_ok_firstn n l : bytes_ok l = true -> bytes_ok (firstn n l) = true.
Proof.
  revert n. induction l as [|x t IH]; intros [|n] H; try reflexivity.
  cbn [firstn]. rewrite bytes_ok_cons in *. apply andb_true_iff in H. destruct H as [H1 H2].
  rewrite H1. cbn [andb]. apply IH. exact H2.
Qed.

Lemma bytes_ok_skipn n l : bytes_ok l = true -> bytes_ok (skipn n l) = true.
Proof.
  revert n. induction l as [|x t IH]; intros [|n] H; try reflexivity; [exact H|].
  cbn [skipn]. rewrite bytes_ok_cons in H. apply andb_true_iff in H. apply IH. apply H.
Qed.

Lemma be_cut_bound n l : bytes_ok l = true -> be (firstn n l) < 256 ^ N.of_nat n.
Proof.
  intros H. pose proof (be_bound (firstn n l) (bytes_ok_firstn n l H)) as Hb.
  eapply N.lt_le_trans; [exact Hb|]. apply N.pow_le_mono_r; [discriminate|].
  rewrite firstn_length. lia.
Qed.

(* every typed field is cut out of the input, so it is below its width *)
Lemma vfixed_decode_wf b v : bytes_ok b = true -> vfixed_decode b = Ok v -> vfixed_wf v = true.
Proof.
  intros Hb. unfold vfixed_decode, cut. destruct (31 <? _) eqn:E; [discriminate|]. apply N.ltb_ge in E.
  intros H. apply Ok_inj in H. subst v. unfold vfixed_wf. cbn [vf_dri vf_width vf_height vf_hres vf_vres vf_frames vf_cname].
  repeat (apply andb_true_iff; split);
    try (apply N.ltb_lt; first [apply (be_cut_bound 2)|apply (be_cut_bound 4)]; repeat apply bytes_ok_skipn; exact Hb).
  - apply N.leb_le. unfold lenN. rewrite firstn_length. lia.
  - apply bytes_ok_firstn. repeat apply bytes_ok_skipn. exact Hb.
Qed.

Lemma afixed_decode_wf b : bytes_ok b = true -> afixed_wf (afixed_decode b) = true.
Proof.
  intros Hb. unfold afixed_decode, cut, afixed_wf. cbn [af_dri af_channels af_samplesize af_rate].
  repeat (apply andb_true_iff; split); apply N.ltb_lt; apply (be_cut_bound 2); repeat apply bytes_ok_skipn; exact Hb.
Qed.

(* for ANY input bytes: what the library writes back decodes to the same typed fields, and writing it again changes
   nothing (the normalisation of reserved / pre_defined bytes happens once, with or without protection) *)
Lemma fixed_reencode_stable k fx fx' :
  bytes_ok fx = true -> fixed_reencode k fx = Ok fx' ->
  fixed_reencode k fx' = Ok fx' /\ length fx' = fixed_len k /\
  match k with
  | SVisual => vfixed_decode fx' = vfixed_decode fx
  | SAudio => afixed_decode fx' = afixed_decode fx
  | SOtherKind => True
  end.
Proof.
  intros Hb. destruct k; cbn [fixed_reencode fixed_len].
  - intros H. apply rbind_Ok in H as (v & Ev & H). injection H as <-. pose proof (vfixed_decode_wf fx v Hb Ev) as Hw.
    rewrite (vfixed_codec v Hw). cbn [rbind]. split; [reflexivity|]. split; [apply vfixed_encode_len; exact Hw|symmetry; exact Ev].
  - intros H. injection H as <-. rewrite (afixed_codec _ (afixed_decode_wf fx Hb)).
    split; [reflexivity|]. split; [apply afixed_encode_len|reflexivity].
  - discriminate.
Qed.

(* ---------------------------------------------------------------- children, 16-byte headers included *)
Lemma wf_large_parts b : wf_large b = true -> 16 <= lenN b /\ be (firstn 4 b) = 1 /\ be (firstn 8 (skipn 8 b)) = lenN b.
Proof.
  unfold wf_large. intros H. apply andb_true_iff in H. destruct H as [H H3]. apply andb_true_iff in H. destruct H as [H1 H2].
  apply N.leb_le in H1. apply N.eqb_eq in H2. apply N.eqb_eq in H3. auto.
Qed.

Lemma firstn_skipn_app_inside {A} (b rest : list A) i n :
  (i + n <= length b)%nat -> firstn n (skipn i (b ++ rest)) = firstn n (skipn i b).
Proof.
  intros H. rewrite skipn_app. replace (i - length b)%nat with 0%nat by lia. cbn [skipn].
  rewrite firstn_app. rewrite skipn_length. replace (n - (length b - i))%nat with 0%nat by lia.
  cbn [firstn]. apply app_nil_r.
Qed.

Lemma walk16_step b rest f :
  wf_box16 b = true ->
  walk_boxes16 (S f) (b ++ rest) = (do r <- walk_boxes16 f rest; Ok (b :: r)).
Proof.
  intros H. unfold wf_box16 in H. apply orb_true_iff in H. cbn [walk_boxes16]. rewrite lenN_app.
  assert (H8 : 8 <= lenN b) by (destruct H as [H|H]; [apply (wf_box_parts b H)|destruct (wf_large_parts b H); lia]).
  replace (lenN b + lenN rest =? 0) with false by (symmetry; apply N.eqb_neq; lia).
  replace (lenN b + lenN rest <? 8) with false by (symmetry; apply N.ltb_ge; lia).
  cbn zeta. rewrite (firstn4_app b rest H8).
  destruct H as [H|H].
  - (* compact header: the size field is the length *)
    destruct (wf_box_parts b H) as (_ & Hsz & _). rewrite Hsz.
    replace (lenN b =? 1) with false by (symmetry; apply N.eqb_neq; lia).
    replace (lenN b <? 8) with false by (symmetry; apply N.ltb_ge; lia).
    replace (lenN b + lenN rest <? lenN b) with false by (symmetry; apply N.ltb_ge; lia).
    unfold lenN at 1 2. rewrite Nat2N.id, firstn_app_exact, skipn_app_exact by reflexivity. reflexivity.
  - (* size field 1: the 64-bit size behind the type is the length *)
    destruct (wf_large_parts b H) as (H16 & H1 & Hsz). rewrite H1. cbn [N.eqb Pos.eqb].
    rewrite (firstn_skipn_app_inside b rest 8 8), Hsz by (unfold lenN in H16; lia).
    replace (lenN b + lenN rest <? 16) with false by (symmetry; apply N.ltb_ge; lia).
    replace (lenN b <? 16) with false by (symmetry; apply N.ltb_ge; lia).
    replace (lenN b + lenN rest <? lenN b) with false by (symmetry; apply N.ltb_ge; lia).
    unfold lenN at 1 2. rewrite Nat2N.id, firstn_app_exact, skipn_app_exact by reflexivity. reflexivity.
Qed.

Lemma wf_box16_len b : wf_box16 b = true -> 8 <= lenN b.
Proof.
  unfold wf_box16. intros H. apply orb_true_iff in H. destruct H as [H|H].
  - destruct (wf_box_parts b H) as (H8 & _). exact H8.
  - destruct (wf_large_parts b H) as (H16 & _). lia.
Qed.

Lemma children16_concat bs : forallb wf_box16 bs = true -> children16 (concat bs) = Ok bs.
Proof. apply (walk_concat walk_boxes16 wf_box16); [intros [|f]; reflexivity|exact walk16_step|exact wf_box16_len]. Qed.

(* ---------------------------------------------------------------- the sinf anywhere among the children *)
(* decode (typed fixed fields) + RemoveEncryption + Encode of an entry protected with the sinf at ANY position: the
   clear entry with the re-encoded fixed fields, the children before and after the sinf in place *)
Lemma entry_typed_roundtrip k ty fx fx' before after sch t :
  k <> SOtherKind ->
  ty < 4294967296 -> sch < 4294967296 -> tenc_wf t = true ->
  length fx = fixed_len k -> fixed_reencode k fx = Ok fx' ->
  forallb wf_box16 before = true -> forallb wf_box16 after = true -> no_sinf_box after = true ->
  8 + lenN fx + lenN (concat before) + lenN (concat after) + 400 < 4294967296 ->
  unprotect_entry_typed k (protect_entry_bytes_at (enc_type k) ty fx before after sch t)
  = Ok (entry_bytes ty fx' (before ++ after), mkSD (Some ty) (Some sch) (Some (Some t))).
Proof.
  intros Hk Hty Hsch Ht Hlen Hre Hwb Hwa Hns Hsz. unfold unprotect_entry_typed, protect_entry_bytes_at.
  set (s := sinf_encode ty sch t).
  replace (box_type (entry_bytes (enc_type k) fx (before ++ s :: after))) with (enc_type k)
    by (symmetry; apply mkbox_type; destruct k; reflexivity).
  rewrite entry_payload, N.eqb_refl, <- Hlen.
  replace (lenN (fx ++ concat (before ++ s :: after)) <? N.of_nat (length fx)) with false
    by (symmetry; apply N.ltb_ge; rewrite lenN_app; unfold lenN; lia).
  rewrite firstn_app_exact, skipn_app_exact, Hre by reflexivity. cbn [rbind negb].
  rewrite children16_concat
    by (rewrite forallb_app, Hwb; cbn [forallb]; unfold wf_box16 at 1; unfold s; rewrite sinf_encode_wf, Hwa by exact Ht; reflexivity).
  assert (Hst : box_type s = cc_sinf) by (apply mkbox_type; reflexivity).
  cbn [rbind]. rewrite (last_sinf_box_mid before s after None Hst Hns). unfold s at 1.
  rewrite (sinf_codec ty sch t Hty Hsch Ht). cbn [rbind sd_frma].
  rewrite (remove_last_sinf_box_mid before s after Hst Hns). reflexivity.
Qed.

(* the byte layout of an entry: size field, 4cc, fixed fields, the children one after the other *)
Lemma entry_bytes_layout ty fixed children :
  entry_bytes ty fixed children
  = be_bytes4 (u32 (8 + lenN (fixed ++ concat children))) ++ be_bytes4 ty ++ fixed ++ concat children.
Proof. reflexivity. Qed.

(* "every byte of the entry except the size field, the 4cc and the sinf child is identical" *)
Lemma entry_bytes_identical k ty fx before after sch t :
  k <> SOtherKind ->
  ty < 4294967296 -> sch < 4294967296 -> tenc_wf t = true ->
  length fx = fixed_len k -> fixed_reencode k fx = Ok fx ->
  forallb wf_box16 before = true -> forallb wf_box16 after = true -> no_sinf_box after = true ->
  8 + lenN fx + lenN (concat before) + lenN (concat after) + 400 < 4294967296 ->
  exists clear size_p size_c,
    unprotect_entry_typed k (protect_entry_bytes_at (enc_type k) ty fx before after sch t)
    = Ok (clear, mkSD (Some ty) (Some sch) (Some (Some t))) /\
    protect_entry_bytes_at (enc_type k) ty fx before after sch t
    = size_p ++ be_bytes4 (enc_type k) ++ fx ++ concat before ++ sinf_encode ty sch t ++ concat after /\
    clear = size_c ++ be_bytes4 ty ++ fx ++ concat before ++ concat after /\
    length size_p = 4%nat /\ length size_c = 4%nat.
Proof.
  intros Hk Hty Hsch Ht Hlen Hre Hwb Hwa Hns Hsz.
  exists (entry_bytes ty fx (before ++ after)).
  exists (be_bytes4 (u32 (8 + lenN (fx ++ concat (before ++ sinf_encode ty sch t :: after))))).
  exists (be_bytes4 (u32 (8 + lenN (fx ++ concat (before ++ after))))).
  split; [apply (entry_typed_roundtrip k ty fx fx before after sch t); assumption|].
  split; [|split; [|split; reflexivity]].
  - unfold protect_entry_bytes_at. rewrite entry_bytes_layout. rewrite concat_app. cbn [concat]. reflexivity.
  - rewrite entry_bytes_layout. rewrite concat_app. reflexivity.
Qed.
