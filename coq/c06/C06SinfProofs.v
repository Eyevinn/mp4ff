(* C06SinfProofs.v — the bytes InitProtect writes into a sample entry are read back as the sinf it built, and
   decode + RemoveEncryption + encode of the protected entry gives back the bytes of the clear entry. *)
From V.lib Require Import Base.
From V.c07 Require Import C07Model C07Spec C07RangeProofs C07CryptProofs.
From V.c06 Require Import C06Lib C06InitModel C06SinfModel.

(* ---------------------------------------------------------------- mkbox *)
Lemma mkbox_len ty p : lenN (mkbox ty p) = 8 + lenN p.
Proof. unfold mkbox. rewrite !lenN_app, !be_bytes4_len. lia. Qed.

Lemma mkbox_payload ty p : box_payload (mkbox ty p) = p.
Proof. unfold box_payload, mkbox, be_bytes4. reflexivity. Qed.

Lemma mkbox_type ty p : ty < 4294967296 -> box_type (mkbox ty p) = ty.
Proof. intros H. change (box_type (mkbox ty p)) with (be (be_bytes4 ty)). apply be_bytes4_be. exact H. Qed.

Lemma mkbox_size ty p rest : 8 + lenN p < 4294967296 -> be (firstn 4 (mkbox ty p ++ rest)) = 8 + lenN p.
Proof.
  intros H. change (firstn 4 (mkbox ty p ++ rest)) with (be_bytes4 (u32 (8 + lenN p))).
  rewrite (u32_small _ H). apply be_bytes4_be. exact H.
Qed.

Lemma mkbox_wf ty p : 8 + lenN p < 4294967296 -> wf_box (mkbox ty p) = true.
Proof.
  intros H. unfold wf_box. rewrite mkbox_len.
  pose proof (mkbox_size ty p [] H) as Hs. rewrite app_nil_r in Hs. rewrite Hs, N.eqb_refl.
  assert (H1 : 8 <=? 8 + lenN p = true) by (apply N.leb_le; lia).
  assert (H2 : 8 + lenN p <? 4294967296 = true) by (apply N.ltb_lt; exact H). rewrite H1, H2. reflexivity.
Qed.

(* ---------------------------------------------------------------- walking well-formed boxes *)
Lemma wf_box_parts b : wf_box b = true -> 8 <= lenN b /\ be (firstn 4 b) = lenN b /\ lenN b < 4294967296.
Proof.
  unfold wf_box. intros H. apply andb_true_iff in H. destruct H as [H H3]. apply andb_true_iff in H. destruct H as [H1 H2].
  apply N.leb_le in H1. apply N.eqb_eq in H2. apply N.ltb_lt in H3. auto.
Qed.

Lemma firstn4_app (b rest : list N) : 8 <= lenN b -> firstn 4 (b ++ rest) = firstn 4 b.
Proof. intros H. rewrite firstn_app. replace (4 - length b)%nat with 0%nat by (unfold lenN in H; lia). cbn [firstn]. apply app_nil_r. Qed.

(* a walker that splits off one box of kind P at a time reads a concatenation of such boxes back as the list *)
Section Walk.
  Variable W : nat -> list N -> res (list (list N)).
  Variable P : list N -> bool.
  Hypothesis W_nil : forall f, W f [] = Ok [].
  Hypothesis W_step : forall b rest f, P b = true -> W (S f) (b ++ rest) = (do r <- W f rest; Ok (b :: r)).
  Hypothesis P_len : forall b, P b = true -> 8 <= lenN b.

  Lemma walk_concat bs : forallb P bs = true -> W (S (length (concat bs))) (concat bs) = Ok bs.
  Proof.
    intros H.
    assert (Hf : forall fuel, (length bs <= fuel)%nat -> W fuel (concat bs) = Ok bs).
    { induction bs as [|b t IH]; intros fuel Hf; [apply W_nil|].
      cbn [forallb] in H. apply andb_true_iff in H. destruct H as [Hb Ht].
      destruct fuel as [|f]; [cbn in Hf; lia|]. cbn [concat].
      rewrite (W_step b (concat t) f Hb), (IH Ht f) by (cbn in Hf; lia). reflexivity. }
    apply Hf. clear Hf. induction bs as [|b t IH]; [cbn; lia|].
    cbn [forallb] in H. apply andb_true_iff in H. destruct H as [Hb Ht].
    pose proof (P_len b Hb) as H8. specialize (IH Ht). cbn [concat length]. rewrite app_length. unfold lenN in H8. lia.
  Qed.
End Walk.

Lemma walk_step b rest f :
  wf_box b = true -> walk_boxes (S f) (b ++ rest) = (do r <- walk_boxes f rest; Ok (b :: r)).
Proof.
  intros H. destruct (wf_box_parts b H) as (H8 & Hsz & H32). destruct b as [|x b']; [discriminate H|].
  cbn [app walk_boxes]. change (x :: b' ++ rest) with ((x :: b') ++ rest). set (b := x :: b') in *.
  rewrite lenN_app, (firstn4_app b rest H8), Hsz.
  replace (lenN b + lenN rest <? 8) with false by (symmetry; apply N.ltb_ge; lia).
  replace (lenN b <? 8) with false by (symmetry; apply N.ltb_ge; lia).
  replace (lenN b + lenN rest <? lenN b) with false by (symmetry; apply N.ltb_ge; lia).
  unfold lenN at 1 2. rewrite Nat2N.id, firstn_app_exact, skipn_app_exact by reflexivity. reflexivity.
Qed.

Lemma children_of_concat bs : forallb wf_box bs = true -> children_of (concat bs) = Ok bs.
Proof.
  apply (walk_concat walk_boxes wf_box); [intros [|f]; reflexivity|exact walk_step|].
  intros b H. apply (wf_box_parts b H).
Qed.

(* ---------------------------------------------------------------- leaves *)
Lemma frma_codec fmt : fmt < 4294967296 -> frma_decode (frma_encode fmt) = Ok fmt.
Proof.
  intros H. unfold frma_decode, frma_encode. rewrite mkbox_payload, be_bytes4_len, N.eqb_refl. cbn [negb].
  rewrite be_bytes4_be by exact H. reflexivity.
Qed.

Lemma schm_codec sch : sch < 4294967296 -> schm_decode (schm_encode sch) = Ok sch.
Proof.
  intros H. unfold schm_decode, schm_encode. rewrite mkbox_payload.
  set (p := [0; 0; 0; 0] ++ be_bytes4 sch ++ be_bytes4 65536).
  change (lenN p <? 12) with false. change (be (firstn 4 p) mod 16777216) with 0.
  change (firstn 4 (skipn 4 p)) with (be_bytes4 sch). cbn [N.land N.eqb negb andb].
  rewrite be_bytes4_be by exact H. reflexivity.
Qed.

(* the crypt : skip pattern shares a byte, a nibble each *)
Lemma pattern_byte cb sb : cb < 16 -> sb < 16 ->
  N.lor (u8 (cb * 16)) sb / 16 = cb /\ N.lor (u8 (cb * 16)) sb mod 16 = sb.
Proof.
  intros Hcb Hsb. assert (Hu : u8 (cb * 16) = cb * 2 ^ 4) by (unfold u8; rewrite N.mod_small; [reflexivity|lia]).
  rewrite Hu, (lor_shifted_add cb sb 4) by (change (2 ^ 4) with 16; exact Hsb). change (2 ^ 4) with 16.
  split; [rewrite N.add_comm, N.div_add, N.div_small by (try discriminate; exact Hsb); reflexivity|].
  rewrite N.add_comm, N.mod_add by discriminate. apply N.mod_small. exact Hsb.
Qed.

Lemma tenc_codec t : tenc_wf t = true -> tenc_decode (tenc_encode t) = Ok t.
Proof.
  unfold tenc_wf. intros H.
  apply andb_true_iff in H. destruct H as [H Hc0]. apply andb_true_iff in H. destruct H as [H Hv0].
  apply andb_true_iff in H. destruct H as [H Hcok]. apply andb_true_iff in H. destruct H as [H Hcl].
  apply andb_true_iff in H. destruct H as [H Hk]. apply andb_true_iff in H. destruct H as [H Hiv].
  apply andb_true_iff in H. destruct H as [H Hip]. apply andb_true_iff in H. destruct H as [H Hsb].
  apply andb_true_iff in H. destruct H as [Hv Hcb].
  apply N.ltb_lt in Hv, Hcb, Hsb, Hip, Hiv, Hk, Hcl.
  destruct t as [v cb sb ip ivs kid civ]. cbn [t_version t_cb t_sb t_isprot t_ivsize t_kid t_constiv] in *.
  unfold tenc_decode, tenc_encode. rewrite mkbox_payload.
  cbn [t_version t_cb t_sb t_isprot t_ivsize t_kid t_constiv].
  set (info := if v =? 0 then 0 else N.lor (u8 (cb * 16)) sb).
  set (tail := if (ip =? 1) && (ivs =? 0) then u8 (lenN civ) :: civ else []).
  assert (Hu8v : u8 v = v) by (unfold u8; apply N.mod_small; exact Hv). rewrite Hu8v.
  cbn [app].
  assert (Hkl : length (be_bytes 16 kid) = 16%nat) by apply be_bytes_length.
  set (X := be_bytes 16 kid ++ tail).
  set (p := v :: 0 :: 0 :: 0 :: 0 :: info :: ip :: ivs :: X).
  assert (Hlen : lenN p = 24 + lenN tail).
  { unfold p, X. rewrite !lenN_cons, lenN_app. unfold lenN at 1. rewrite Hkl. lia. }
  rewrite Hlen. assert (E24 : 24 + lenN tail <? 24 = false) by (apply N.ltb_ge; lia). rewrite E24.
  assert (P1 : firstn 4 p = [v; 0; 0; 0]) by reflexivity.
  assert (P2 : nth 5 p 0 = info) by reflexivity.
  assert (P3 : nth 6 p 0 = ip) by reflexivity.
  assert (P4 : nth 7 p 0 = ivs) by reflexivity.
  assert (P5 : skipn 8 p = X) by reflexivity.
  assert (P6 : nth 24 p 0 = nth 16 X 0) by reflexivity.
  assert (P7 : skipn 25 p = skipn 17 X) by reflexivity.
  rewrite P1, P2, P3, P4, P5, P6, P7. clearbody p. clear P1 P2 P3 P4 P5 P6 P7.
  assert (Hver : be [v; 0; 0; 0] / 16777216 = v).
  { unfold be. cbn [fold_left]. replace (((0 * 256 + v) * 256 + 0) * 256 + 0) with (v * 65536) by lia.
    replace ((v * 65536) * 256 + 0) with (v * 16777216) by lia. apply N.div_mul. discriminate. }
  rewrite Hver.
  assert (Hkid : be (firstn 16 X) = kid).
  { unfold X. rewrite firstn_app_exact by (symmetry; exact Hkl). rewrite be_be_bytes. change (256 ^ N.of_nat 16) with M128.
    apply N.mod_small. exact Hk. }
  rewrite Hkid.
  assert (Hcbsb : (if v =? 0 then 0 else info / 16) = cb /\ (if v =? 0 then 0 else info mod 16) = sb).
  { unfold info. destruct (v =? 0); [|apply pattern_byte; assumption].
    cbn [implb] in Hv0. apply andb_true_iff in Hv0. destruct Hv0 as [A B]. apply N.eqb_eq in A, B. subst cb sb. split; reflexivity. }
  destruct Hcbsb as [Ecb Esb]. rewrite Ecb, Esb.
  unfold X, tail. destruct ((ip =? 1) && (ivs =? 0)) eqn:Ec.
  - assert (Hu8c : u8 (lenN civ) = lenN civ) by (unfold u8; apply N.mod_small; exact Hcl).
    rewrite lenN_cons. assert (E25 : 24 + (1 + lenN civ) <? 25 = false) by (apply N.ltb_ge; lia). rewrite E25.
    assert (Hn24 : nth 16 (be_bytes 16 kid ++ u8 (lenN civ) :: civ) 0 = lenN civ).
    { rewrite app_nth2 by lia. rewrite Hkl. cbn [Nat.sub nth]. exact Hu8c. }
    rewrite Hn24. assert (E26 : 24 + (1 + lenN civ) <? 25 + lenN civ = false) by (apply N.ltb_ge; lia). rewrite E26.
    assert (Hs : skipn 17 (be_bytes 16 kid ++ u8 (lenN civ) :: civ) = civ).
    { rewrite skipn_app, Hkl. rewrite skipn_all2 by lia. cbn [Nat.sub app skipn]. reflexivity. }
    rewrite Hs. unfold lenN. rewrite Nat2N.id, firstn_all. reflexivity.
  - cbn [orb] in Hc0. apply N.eqb_eq in Hc0. assert (civ = []) by (destruct civ; [reflexivity|unfold lenN in Hc0; cbn in Hc0; lia]).
    subst civ. reflexivity.
Qed.

(* sizes of the boxes InitProtect writes are far below 2^32 *)
Lemma tenc_encode_len t : tenc_wf t = true -> lenN (tenc_encode t) <= 8 + 24 + 1 + 255.
Proof.
  unfold tenc_wf. intros H. repeat (apply andb_true_iff in H; destruct H as [H ?]).
  unfold tenc_encode. rewrite mkbox_len, !lenN_app. cbn [lenN length N.of_nat].
  assert (Hk : lenN (be_bytes 16 (t_kid t)) = 16) by (unfold lenN; rewrite be_bytes_length; reflexivity).
  rewrite Hk. match goal with H : (lenN (t_constiv t) <? 256) = true |- _ => apply N.ltb_lt in H end.
  destruct ((t_isprot t =? 1) && (t_ivsize t =? 0)); [rewrite lenN_cons|change (lenN (@nil N)) with 0]; lia.
Qed.

Lemma schi_codec t : tenc_wf t = true -> schi_decode (schi_encode t) = Ok (Some t).
Proof.
  intros H. unfold schi_decode, schi_encode. rewrite mkbox_payload.
  pose proof (tenc_encode_len t H) as Hl.
  assert (Hw : forallb wf_box [tenc_encode t] = true).
  { cbn [forallb]. rewrite andb_true_r. unfold tenc_encode. apply mkbox_wf. unfold tenc_encode in Hl. rewrite mkbox_len in Hl. lia. }
  pose proof (children_of_concat [tenc_encode t] Hw) as Hc. cbn [concat] in Hc. rewrite app_nil_r in Hc. rewrite Hc.
  cbn [rbind schi_children]. unfold tenc_encode at 1. rewrite mkbox_type by reflexivity. rewrite N.eqb_refl.
  rewrite tenc_codec by exact H. reflexivity.
Qed.

(* parse (encode sinf) = sinf: the sinf InitProtect builds (frma = original sample entry type, schm, schi{tenc}) is read
   back by the decoder with exactly these values *)
Lemma sinf_codec fmt sch t :
  fmt < 4294967296 -> sch < 4294967296 -> tenc_wf t = true ->
  sinf_decode (sinf_encode fmt sch t) = Ok (mkSD (Some fmt) (Some sch) (Some (Some t))).
Proof.
  intros Hf Hs Ht. unfold sinf_decode, sinf_encode. rewrite mkbox_payload.
  pose proof (tenc_encode_len t Ht) as Hl.
  assert (Hw : forallb wf_box [frma_encode fmt; schm_encode sch; schi_encode t] = true).
  { cbn [forallb]. rewrite andb_true_r. apply andb_true_iff. split; [|apply andb_true_iff; split].
    - unfold frma_encode. apply mkbox_wf. rewrite be_bytes4_len. lia.
    - unfold schm_encode. apply mkbox_wf. rewrite !lenN_app, !be_bytes4_len. cbn [lenN length N.of_nat]. lia.
    - unfold schi_encode. apply mkbox_wf. lia. }
  pose proof (children_of_concat _ Hw) as Hc. cbn [concat] in Hc. rewrite app_nil_r in Hc. rewrite Hc.
  cbn [rbind sinf_children].
  unfold frma_encode at 1. rewrite mkbox_type by reflexivity. change (cc_frma =? cc_frma) with true. cbn iota.
  rewrite frma_codec by exact Hf. cbn [rbind sd_schm sd_schi sd_frma].
  unfold schm_encode at 1. rewrite mkbox_type by reflexivity.
  change (cc_schm =? cc_frma) with false. change (cc_schm =? cc_schm) with true. cbn iota.
  rewrite schm_codec by exact Hs. cbn [rbind sd_schm sd_schi sd_frma].
  unfold schi_encode at 1. rewrite mkbox_type by reflexivity.
  change (cc_schi =? cc_frma) with false. change (cc_schi =? cc_schm) with false. change (cc_schi =? cc_schi) with true. cbn iota.
  rewrite schi_codec by exact Ht. reflexivity.
Qed.

Lemma sinf_encode_len fmt sch t : tenc_wf t = true -> lenN (sinf_encode fmt sch t) <= 400.
Proof.
  intros Ht. pose proof (tenc_encode_len t Ht) as Hl.
  unfold sinf_encode, frma_encode, schm_encode, schi_encode. rewrite !mkbox_len, !lenN_app, !mkbox_len, !lenN_app, !be_bytes4_len.
  cbn [lenN length N.of_nat]. lia.
Qed.

Lemma sinf_encode_wf fmt sch t : tenc_wf t = true -> wf_box (sinf_encode fmt sch t) = true.
Proof.
  intros Ht. pose proof (sinf_encode_len fmt sch t Ht) as Hl. unfold sinf_encode in *. rewrite mkbox_len in Hl.
  apply mkbox_wf. lia.
Qed.

(* ---------------------------------------------------------------- the sample entry *)
Definition no_sinf_box (l : list (list N)) : bool := forallb (fun c => negb (box_type c =? cc_sinf)) l.

(* a sinf followed by boxes that are none is the one RemoveEncryption reads, and the one it removes *)
Lemma last_sinf_box_mid before s after acc :
  box_type s = cc_sinf -> no_sinf_box after = true -> last_sinf_box (before ++ s :: after) acc = Some s.
Proof.
  intros Hs Ha. revert acc. induction before as [|c t IH]; intros acc; [|apply IH].
  cbn [app last_sinf_box]. rewrite Hs, N.eqb_refl.
  generalize (Some s). induction after as [|a u IHu]; intros o; [reflexivity|].
  cbn [no_sinf_box forallb] in Ha. apply andb_true_iff in Ha. destruct Ha as [Ha1 Ha2].
  cbn [last_sinf_box]. destruct (box_type a =? cc_sinf); [discriminate|]. apply IHu. exact Ha2.
Qed.

Lemma remove_last_sinf_box_mid before s after :
  box_type s = cc_sinf -> no_sinf_box after = true -> remove_last_sinf_box (before ++ s :: after) = before ++ after.
Proof.
  intros Hs Ha. induction before as [|c t IH]; cbn [app remove_last_sinf_box].
  - assert (He : existsb (fun x => box_type x =? cc_sinf) after = false).
    { apply not_true_is_false. intros He. apply existsb_exists in He. destruct He as (x & Hx & Ex).
      apply (proj1 (forallb_forall _ _) Ha) in Hx. rewrite Ex in Hx. discriminate. }
    rewrite Hs, N.eqb_refl, He. reflexivity.
  - rewrite existsb_app. cbn [existsb]. rewrite Hs, N.eqb_refl, orb_true_r, andb_false_r. f_equal. exact IH.
Qed.

Lemma entry_payload ty fixed children : box_payload (entry_bytes ty fixed children) = fixed ++ concat children.
Proof. apply mkbox_payload. Qed.

(* decode + RemoveEncryption + encode of the entry InitProtect wrote = the bytes of the clear entry, whatever the
   entry's fixed fields and children (their own sinf boxes included), and the sinf read is the one written: the
   original sample entry type is restored in the BYTES *)
Lemma entry_bytes_roundtrip enc_ty ty fixed children sch t :
  ty < 4294967296 -> sch < 4294967296 -> tenc_wf t = true ->
  forallb wf_box children = true ->
  8 + lenN fixed + lenN (concat children) + 400 < 4294967296 ->
  unprotect_entry_bytes (length fixed) (protect_entry_bytes enc_ty ty fixed children sch t)
  = Ok (entry_bytes ty fixed children, mkSD (Some ty) (Some sch) (Some (Some t))).
Proof.
  intros Hty Hsch Ht Hw Hsz. unfold unprotect_entry_bytes, protect_entry_bytes. rewrite entry_payload.
  replace (lenN (fixed ++ concat (children ++ [sinf_encode ty sch t])) <? N.of_nat (length fixed)) with false
    by (symmetry; apply N.ltb_ge; rewrite lenN_app; unfold lenN; lia).
  rewrite firstn_app_exact, skipn_app_exact by reflexivity.
  rewrite children_of_concat by (rewrite forallb_app, Hw; cbn [forallb]; rewrite sinf_encode_wf by exact Ht; reflexivity).
  assert (Hst : box_type (sinf_encode ty sch t) = cc_sinf) by (apply mkbox_type; reflexivity).
  cbn [rbind]. rewrite (last_sinf_box_mid children _ [] None Hst eq_refl), (sinf_codec ty sch t Hty Hsch Ht).
  cbn [rbind sd_frma]. rewrite (remove_last_sinf_box_mid children _ [] Hst eq_refl), app_nil_r. reflexivity.
Qed.
