(* C06CbcsProofs.v — cbcs decryption inverts cbcs encryption (1:9 pattern, unpatterned audio case, any pattern,
   every size class), for every pair of block functions with D k (E k b) = b on 16-byte blocks. *)
From V.lib Require Import Base.
From V.c07 Require Import C07Model C07Spec C07RangeProofs C07CbcsProofs.
From V.c06 Require Import C06Lib C06CencProofs.

Lemma mult16' n : n mod 16 = 0 -> exists m, N.to_nat n = (16 * m)%nat.
Proof. intros H. exists (N.to_nat (n / 16)). pose proof (N.div_mod n 16). lia. Qed.

Section CbcsInv.
  Variable E : list N -> list N -> list N.
  Variable D : list N -> list N -> list N.
  Variable key : list N.
  Hypothesis HE : forall k b, length (E k b) = 16%nat.
  Hypothesis HD : forall k b, length (D k b) = 16%nat.
  Hypothesis HDE : forall k b, length b = 16%nat -> D k (E k b) = b.

  Lemma cbc_enc_S f prev x t :
    cbc_enc E (S f) key prev (x :: t) =
    (let c := E key (xorl (firstn 16 (x :: t)) prev) in
     let '(o, p) := cbc_enc E f key c (skipn 16 (x :: t)) in (c ++ o, p)).
  Proof. reflexivity. Qed.

  Lemma cbc_dec_S f prev data :
    data <> [] ->
    cbc_dec D (S f) key prev data =
    (let c := firstn 16 data in
     let p := xorl (D key c) prev in
     let '(o, pv) := cbc_dec D f key c (skipn 16 data) in (p ++ o, pv)).
  Proof. destruct data; [congruence|reflexivity]. Qed.

  Lemma cbc_roundtrip : forall fuel m prev data,
    length prev = 16%nat -> length data = (16 * m)%nat -> (m < fuel)%nat ->
    cbc_dec D fuel key prev (fst (cbc_enc E fuel key prev data)) = (data, snd (cbc_enc E fuel key prev data)).
  Proof.
    induction fuel as [|f IH]; intros m prev data Hp Hd Hm; [lia|].
    destruct data as [|x t]; [reflexivity|].
    destruct m as [|m]; [cbn in Hd; lia|].
    rewrite cbc_enc_S. cbv zeta.
    set (blk := firstn 16 (x :: t)). set (rest := skipn 16 (x :: t)).
    assert (Hblk : length blk = 16%nat) by (unfold blk; rewrite firstn_length; lia).
    assert (Hrest : length rest = (16 * m)%nat) by (unfold rest; rewrite skipn_length; lia).
    set (c := E key (xorl blk prev)).
    assert (Hc : length c = 16%nat) by apply HE.
    specialize (IH m c rest Hc Hrest ltac:(lia)).
    destruct (cbc_enc E f key c rest) as [o p]. cbn [fst snd] in *.
    rewrite cbc_dec_S by (destruct c; [discriminate|discriminate]). cbv zeta.
    rewrite firstn_app_exact, skipn_app_exact, IH by (symmetry; exact Hc). unfold c at 1.
    rewrite HDE by (rewrite xorl_len; lia). rewrite xorl_involutive by lia.
    unfold blk, rest. rewrite firstn_skipn. reflexivity.
  Qed.

  Lemma cbc_inv prev seg m :
    length prev = 16%nat -> length seg = (16 * m)%nat ->
    cbc E D true key prev (fst (cbc E D false key prev seg)) = (seg, snd (cbc E D false key prev seg)).
  Proof.
    intros Hp Hs.
    destruct (cbc_length E D key HE HD false prev seg m Hp Hs) as [Lo _].
    unfold cbc in *. rewrite Lo. apply (cbc_roundtrip (S (length seg)) m); [exact Hp|exact Hs|lia].
  Qed.

  (* one turn of the pattern loop on data given as the crypt group and what follows it *)
  Lemma ref_pattern_step f dec prev seg r nc ns : lenN seg = nc ->
    ref_pattern E D (S f) dec key prev (seg ++ r) nc ns =
    (let '(o, prev') := cbc E D dec key prev seg in
     if lenN r <? ns then o ++ r
     else o ++ firstn (N.to_nat ns) r ++ ref_pattern E D f dec key prev' (skipn (N.to_nat ns) r) nc ns).
  Proof.
    intros <-. cbn [ref_pattern]. rewrite lenN_app.
    replace (lenN seg <=? lenN seg + lenN r) with true by (symmetry; apply N.leb_le; lia).
    replace (lenN seg + lenN r - lenN seg) with (lenN r) by lia.
    replace (N.to_nat (lenN seg)) with (length seg) by (unfold lenN; symmetry; apply Nat2N.id).
    rewrite firstn_app_exact, skipn_app_exact by reflexivity. reflexivity.
  Qed.

  Lemma ref_pattern_inv nc ns : nc mod 16 = 0 ->
    forall fuel prev rest, length prev = 16%nat ->
    ref_pattern E D fuel true key prev (ref_pattern E D fuel false key prev rest nc ns) nc ns = rest.
  Proof.
    intros Hnc. destruct (mult16' nc Hnc) as (m & Hm). induction fuel as [|f IH]; intros prev rest Hp; [reflexivity|].
    destruct (nc <=? lenN rest) eqn:Ec; [|cbn [ref_pattern]; rewrite Ec; cbn [ref_pattern]; rewrite Ec; reflexivity].
    apply N.leb_le in Ec.
    (* rest = the first crypt group ++ r; decryption finds the group at the same place *)
    rewrite <- (firstn_skipn (N.to_nat nc) rest).
    set (seg := firstn (N.to_nat nc) rest). set (r := skipn (N.to_nat nc) rest).
    assert (Hseg : length seg = (16 * m)%nat) by (unfold seg; rewrite firstn_length; unfold lenN in Ec; lia).
    clearbody seg r. clear Ec rest.
    rewrite (ref_pattern_step f false prev seg r nc ns) by (unfold lenN; lia).
    pose proof (cbc_inv prev seg m Hp Hseg) as Hinv.
    destruct (cbc_length E D key HE HD false prev seg m Hp Hseg) as [Lo Lp].
    destruct (cbc E D false key prev seg) as [o prev']. cbn [fst snd] in *.
    assert (HoN : lenN o = nc) by (unfold lenN; lia).
    destruct (lenN r <? ns) eqn:Es.
    - rewrite (ref_pattern_step f true prev o r nc ns HoN), Hinv, Es. reflexivity.
    - (* r = the skipped bytes ++ the rest, which the induction hypothesis restores *)
      apply N.ltb_ge in Es. rewrite <- (firstn_skipn (N.to_nat ns) r) at 3.
      set (mid := firstn (N.to_nat ns) r). set (r3 := skipn (N.to_nat ns) r).
      assert (Hmid : length mid = N.to_nat ns) by (unfold mid; rewrite firstn_length; unfold lenN in Es; lia).
      rewrite (ref_pattern_step f true prev o _ nc ns HoN), Hinv.
      replace (lenN (mid ++ _) <? ns) with false by (symmetry; apply N.ltb_ge; rewrite lenN_app; unfold lenN; lia).
      rewrite firstn_app_exact, skipn_app_exact, (IH prev' r3 Lp) by (symmetry; exact Hmid). reflexivity.
  Qed.

  Lemma ref_cbcs_range_inv iv data nc ns :
    length iv = 16%nat -> nc mod 16 = 0 ->
    ref_cbcs_range E D true key iv (ref_cbcs_range E D false key iv data nc ns) nc ns = data.
  Proof.
    intros Hiv Hnc.
    pose proof (ref_cbcs_range_length E D key HE HD false iv data nc ns Hiv Hnc) as HL.
    unfold ref_cbcs_range in *. destruct (ns =? 0).
    - assert (HLN : lenN (fst (cbc E D false key iv (firstn (N.to_nat (lenN data / 16 * 16)) data)) ++
                          skipn (N.to_nat (lenN data / 16 * 16)) data) = lenN data)
        by (apply lenN_eq; exact HL).
      rewrite HLN. set (n16 := N.to_nat (lenN data / 16 * 16)) in *.
      destruct (mult16' (lenN data / 16 * 16) ltac:(apply N.mod_mul; discriminate)) as (m & Hm).
      assert (Hsegl : length (firstn n16 data) = (16 * m)%nat)
        by (rewrite firstn_length; unfold n16, lenN in *; lia).
      pose proof (cbc_inv iv (firstn n16 data) m Hiv Hsegl) as Hinv.
      destruct (cbc_length E D key HE HD false iv (firstn n16 data) m Hiv Hsegl) as [Lo _].
      assert (Hn : n16 = length (fst (cbc E D false key iv (firstn n16 data)))).
      { rewrite Lo, firstn_length. unfold n16, lenN in *. lia. }
      rewrite (firstn_app_exact _ _ n16 Hn), (skipn_app_exact _ _ n16 Hn), Hinv. cbn [fst].
      apply firstn_skipn.
    - rewrite HL. apply ref_pattern_inv; assumption.
  Qed.

  Lemma ref_cbcs_walk_length dec iv nc ns : length iv = 16%nat -> nc mod 16 = 0 ->
    forall ssps rest, length (ref_cbcs_walk E D dec key iv ssps rest nc ns) = length rest.
  Proof.
    intros Hiv Hnc. induction ssps as [|ss t IH]; intros rest; [reflexivity|].
    cbn [ref_cbcs_walk]. rewrite !app_length, IH.
    assert (Hx : length (if 0 <? ss_prot ss
                         then ref_cbcs_range E D dec key iv
                                (firstn (N.to_nat (ss_prot ss)) (skipn (N.to_nat (ss_clear ss)) rest)) nc ns
                         else firstn (N.to_nat (ss_prot ss)) (skipn (N.to_nat (ss_clear ss)) rest))
                 = length (firstn (N.to_nat (ss_prot ss)) (skipn (N.to_nat (ss_clear ss)) rest))).
    { destruct (0 <? ss_prot ss); [apply (ref_cbcs_range_length E D key HE HD); assumption|reflexivity]. }
    rewrite Hx. rewrite <- !app_length, !firstn_skipn. reflexivity.
  Qed.

  (* one entry of the map on data given as its clear bytes, its protected bytes and what follows *)
  Lemma ref_cbcs_walk_step dec iv ss t r1 mid post nc ns :
    length r1 = N.to_nat (ss_clear ss) -> length mid = N.to_nat (ss_prot ss) ->
    ref_cbcs_walk E D dec key iv (ss :: t) (r1 ++ mid ++ post) nc ns =
    r1 ++ (if 0 <? ss_prot ss then ref_cbcs_range E D dec key iv mid nc ns else mid) ++
    ref_cbcs_walk E D dec key iv t post nc ns.
  Proof.
    intros H1 H2. cbn [ref_cbcs_walk]. rewrite <- H1, <- H2, firstn_app_exact, skipn_app_exact by reflexivity.
    rewrite firstn_app_exact, skipn_app_exact by reflexivity. reflexivity.
  Qed.

  Lemma ref_cbcs_walk_inv iv nc ns : length iv = 16%nat -> nc mod 16 = 0 ->
    forall ssps rest,
    sumN (map (fun p => ss_clear p + ss_prot p) ssps) <= lenN rest ->
    ref_cbcs_walk E D true key iv ssps (ref_cbcs_walk E D false key iv ssps rest nc ns) nc ns = rest.
  Proof.
    intros Hiv Hnc. induction ssps as [|ss t IH]; intros rest Hsum; [reflexivity|].
    cbn [map sumN] in Hsum.
    (* rest = clear bytes ++ protected bytes ++ post; the encrypted range has the length of the clear one *)
    rewrite <- (firstn_skipn (N.to_nat (ss_clear ss)) rest), <- (firstn_skipn (N.to_nat (ss_prot ss)) (skipn _ rest)).
    set (r1 := firstn _ rest). set (mid := firstn _ (skipn _ rest)). set (post := skipn _ (skipn _ rest)).
    assert (Hr1 : length r1 = N.to_nat (ss_clear ss)) by (unfold r1; rewrite firstn_length; unfold lenN in Hsum; lia).
    assert (Hmid : length mid = N.to_nat (ss_prot ss))
      by (unfold mid; rewrite firstn_length, skipn_length; unfold lenN in Hsum; lia).
    assert (Hpost : sumN (map (fun p => ss_clear p + ss_prot p) t) <= lenN post)
      by (unfold post, lenN in *; rewrite !skipn_length; lia).
    clearbody r1 mid post. clear Hsum rest.
    rewrite (ref_cbcs_walk_step false iv ss t r1 mid post nc ns Hr1 Hmid), ref_cbcs_walk_step, (IH post Hpost);
      [|exact Hr1|destruct (0 <? ss_prot ss); [rewrite (ref_cbcs_range_length E D key HE HD) by assumption|]; exact Hmid].
    destruct (0 <? ss_prot ss); [rewrite ref_cbcs_range_inv by assumption|]; reflexivity.
  Qed.

  Lemma ref_cbcs_length dec iv ssps cb sb s : length iv = 16%nat ->
    length (ref_cbcs E D dec key iv ssps cb sb s) = length s.
  Proof.
    intros Hiv. assert (Hnc : (cb * 16) mod 16 = 0) by (apply N.mod_mul; discriminate).
    unfold ref_cbcs. destruct ssps;
      [apply (ref_cbcs_range_length E D key HE HD)|apply ref_cbcs_walk_length]; assumption.
  Qed.

  (* cryptSampleCbcs (either direction) returns a sample of the same length *)
  Lemma crypt_sample_cbcs_len dec iv ssps cb sb s c :
    key_ok key = true -> length iv = 16%nat ->
    sumN (map (fun p => ss_clear p + ss_prot p) ssps) <= lenN s -> lenN s < 4294967296 ->
    crypt_sample_cbcs E D dec key iv ssps cb sb s = Ok c -> length c = length s.
  Proof.
    intros Hk Hiv Hsum Hlen H.
    rewrite (crypt_sample_cbcs_ref E D key HE HD dec iv ssps cb sb s Hk Hiv Hsum Hlen) in H.
    injection H as <-. apply ref_cbcs_length. exact Hiv.
  Qed.

  (* DecryptSampleCbcs inverts EncryptSampleCbcs *)
  Lemma crypt_sample_cbcs_inverse iv ssps cb sb s c :
    key_ok key = true -> length iv = 16%nat ->
    sumN (map (fun p => ss_clear p + ss_prot p) ssps) <= lenN s ->
    lenN s < 4294967296 ->
    crypt_sample_cbcs E D false key iv ssps cb sb s = Ok c ->
    crypt_sample_cbcs E D true key iv ssps cb sb c = Ok s.
  Proof.
    intros Hk Hiv Hsum Hlen H.
    pose proof (lenN_eq _ _ (crypt_sample_cbcs_len false iv ssps cb sb s c Hk Hiv Hsum Hlen H)) as HLN.
    rewrite (crypt_sample_cbcs_ref E D key HE HD false iv ssps cb sb s Hk Hiv Hsum Hlen) in H.
    injection H as <-.
    rewrite (crypt_sample_cbcs_ref E D key HE HD true iv ssps cb sb) by (rewrite ?HLN; assumption).
    assert (Hnc : (cb * 16) mod 16 = 0) by (apply N.mod_mul; discriminate).
    f_equal. unfold ref_cbcs. destruct ssps as [|ss t].
    - apply ref_cbcs_range_inv; assumption.
    - apply ref_cbcs_walk_inv; assumption.
  Qed.
End CbcsInv.
