(* C06SencRepairProofs.v — SencBox.AddSample after the fix commits ecf1460 / 0b086ee (C06SencModel.senc_add_r):
   what the per-sample loop of EncryptFragment leaves in the SencBox for ANY mix of samples with and without a
   sub-sample map (one table per sample, empty for the samples without), that it agrees with the pinned text on the
   uniform fragments of the earlier theorems, and the transport through the senc bytes for mixed fragments. *)
From V.lib Require Import Base.
From V.c07 Require Import C07Model.
From V.c06 Require Import C06Lib C06Model C06SencModel C06SencProofs C06SencAuxProofs.

Definition has_map (e : enc_sample) : bool := nonempty (e_ssps e).

(* the SencBox at the end of the loop, repaired text *)
Definition senc_after_r (ivsz : N) (encs : list enc_sample) : senc :=
  mkSenc (match encs with [] => 0 | _ => ivsz end) (existsb has_map encs) (lenN encs)
         (if ivsz =? 0 then [] else map e_iv encs) (if existsb has_map encs then map e_ssps encs else []).

Definition ivs_sized (ivsz : N) (encs : list enc_sample) : bool := forallb (fun e => lenN (e_iv e) =? ivsz) encs.

(* the IV part: none stored and none stored before; or the first IV sets the size; or a later one has it *)
Lemma senc_add_iv_r_step ivsz done e :
  ivsz < 256 -> lenN (e_iv e) = ivsz ->
  senc_add_iv_r (senc_after_r ivsz done) (e_iv e)
  = Ok (mkSenc ivsz (existsb has_map done) (lenN done)
               (if ivsz =? 0 then [] else map e_iv (done ++ [e])) (if existsb has_map done then map e_ssps done else [])).
Proof.
  intros Hlt Hiv. unfold senc_add_iv_r, senc_after_r. cbn [sn_ivsize sn_subs sn_count sn_ivs sn_ss].
  rewrite Hiv, map_app. cbn [map].
  destruct (ivsz =? 0) eqn:Ez; cbn [negb]; [|destruct done as [|d t]].
  - apply N.eqb_eq in Ez. change (lenN (@nil (list N)) =? 0) with true. cbn [negb]. rewrite andb_false_r, Ez.
    destruct done; reflexivity.
  - change (lenN (@nil enc_sample) =? 0) with true. cbv iota. unfold u8. rewrite N.mod_small by exact Hlt. reflexivity.
  - change (lenN (d :: t) =? 0) with false. rewrite N.eqb_refl. reflexivity.
Qed.

(* the sub-sample part: one table per sample from the first map on, empty tables for the samples before it *)
Lemma senc_add_ss_r_step ivsz ivs done e :
  senc_add_ss_r (mkSenc ivsz (existsb has_map done) (lenN done) ivs (if existsb has_map done then map e_ssps done else []))
                (e_ssps e)
  = mkSenc ivsz (existsb has_map (done ++ [e])) (lenN (done ++ [e])) ivs
           (if existsb has_map (done ++ [e]) then map e_ssps (done ++ [e]) else []).
Proof.
  unfold senc_add_ss_r. cbn [sn_ivsize sn_subs sn_count sn_ivs sn_ss].
  change (match e_ssps e with [] => false | _ => true end) with (has_map e).
  rewrite existsb_app, map_app, lenN_app. cbn [existsb map]. rewrite orb_false_r. change (lenN [e]) with 1.
  destruct (existsb has_map done) eqn:Ed.
  - rewrite orb_true_r, map_length. cbn [orb sn_ivsize sn_subs sn_count sn_ivs sn_ss]. unfold lenN at 2.
    rewrite Nat2N.id, Nat.sub_diag. reflexivity.
  - destruct (has_map e); cbn [orb sn_ivsize sn_subs sn_count sn_ivs sn_ss]; [|reflexivity].
    unfold lenN at 2. rewrite Nat2N.id. cbn [length Nat.sub app]. rewrite Nat.sub_0_r. f_equal. f_equal.
    symmetry. apply map_all_same. intros x Hx.
    pose proof (proj1 (forallb_forall _ _) (existsb_none _ _ Ed) x Hx) as Hn.
    unfold has_map, nonempty in Hn. destruct (e_ssps x); [reflexivity|discriminate].
Qed.

Lemma senc_add_r_step ivsz done e :
  ivsz < 256 -> lenN (e_iv e) = ivsz ->
  senc_add_r (senc_after_r ivsz done) (e_iv e) (e_ssps e) = Ok (senc_after_r ivsz (done ++ [e])).
Proof.
  intros Hlt Hiv. unfold senc_add_r. rewrite (senc_add_iv_r_step ivsz done e Hlt Hiv). cbn [rbind].
  rewrite senc_add_ss_r_step. unfold senc_after_r. destruct done; reflexivity.
Qed.

(* the SencBox EncryptFragment's loop builds with the repaired AddSample: one table per sample as soon as one sample
   has a map, whatever the position of the samples without *)
Lemma senc_of_r_spec ivsz encs :
  ivsz < 256 -> ivs_sized ivsz encs = true -> senc_of_r senc_empty encs = Ok (senc_after_r ivsz encs).
Proof.
  intros Hlt Hs.
  replace senc_empty with (senc_after_r ivsz []) by (unfold senc_after_r; cbn [existsb]; destruct (ivsz =? 0); reflexivity).
  apply (fold_after (fun s e => senc_add_r s (e_iv e) (e_ssps e)) senc_of_r (senc_after_r ivsz) _
                    (fun _ => eq_refl) (fun _ _ _ => eq_refl) (fun done e => senc_add_r_step ivsz done e Hlt) encs []).
  apply Forall_forall. intros e He. apply N.eqb_eq. exact (proj1 (forallb_forall _ _) Hs e He).
Qed.

Lemma uniform_sized ivsz sub encs : uniform ivsz sub encs = true -> ivs_sized ivsz encs = true.
Proof.
  intros H. apply forallb_forall. intros e He. apply N.eqb_eq.
  exact (proj1 (proj1 (Forall_forall _ _) (uniform_Forall _ _ _ H) e He)).
Qed.

(* with every sample carrying a map, or none, both texts of AddSample leave the same SencBox *)
Lemma senc_after_r_uniform ivsz sub encs : uniform ivsz sub encs = true -> senc_after_r ivsz encs = senc_after ivsz sub encs.
Proof.
  intros H. assert (Hm : existsb has_map encs = sub && nonempty encs).
  { pose proof (uniform_Forall _ _ _ H) as HF. clear H. induction HF as [|e t [_ He] _ IH]; [rewrite andb_false_r; reflexivity|].
    cbn [existsb nonempty]. unfold has_map at 1. rewrite He, IH. destruct sub, t; reflexivity. }
  unfold senc_after_r, senc_after. rewrite Hm. destruct sub, encs; reflexivity.
Qed.

(* on the fragments of the earlier theorems (every sample with a map, or none) the repaired AddSample builds the
   SencBox the pinned text built: C06_senc_transport_cenc/_cbcs and C06_aux_consistent keep describing the code *)
Lemma senc_of_r_uniform ivsz sub encs :
  ivsz < 256 -> uniform ivsz sub encs = true -> lenN encs < 4294967296 ->
  senc_of_r senc_empty encs = senc_of senc_empty encs.
Proof.
  intros Hlt Hu _.
  rewrite (senc_of_r_spec ivsz encs Hlt (uniform_sized _ _ _ Hu)), (senc_of_spec ivsz sub encs Hlt Hu),
    (senc_after_r_uniform _ _ _ Hu). reflexivity.
Qed.

(* ---------------------------------------------------------------- transport for mixed fragments *)
Lemma senc_after_r_wf ivsz encs :
  (ivsz = 0 \/ ivsz = 8 \/ ivsz = 16) -> ivs_sized ivsz encs = true ->
  forallb subs_ok (map e_ssps encs) = true -> lenN encs < 4294967296 ->
  senc_wf (senc_after_r ivsz encs) = true.
Proof.
  intros Hsz Hs Hok Hc. unfold ivs_sized in Hs. rewrite <- (forallb_map e_iv (fun iv => lenN iv =? ivsz)) in Hs.
  unfold senc_wf, senc_after_r. cbn [sn_ivsize sn_subs sn_count sn_ivs sn_ss].
  destruct encs as [|e t].
  - cbn [existsb map lenN length]. destruct (ivsz =? 0); reflexivity.
  - assert (Hcb : lenN (e :: t) <? 4294967296 = true) by (apply N.ltb_lt; exact Hc).
    assert (Hm1 : lenN (map e_iv (e :: t)) =? lenN (e :: t) = true) by (unfold lenN; rewrite map_length; apply N.eqb_refl).
    assert (Hm2 : lenN (map e_ssps (e :: t)) =? lenN (e :: t) = true) by (unfold lenN; rewrite map_length; apply N.eqb_refl).
    assert (Hne : lenN (e :: t) =? 0 = false) by reflexivity.
    rewrite Hcb, Hne. cbn [negb orb]. rewrite ?andb_true_r.
    destruct Hsz as [-> | [-> | ->]]; cbn [N.eqb Pos.eqb orb andb]; rewrite ?Hm1, ?Hs; cbn [andb];
      destruct (existsb has_map (e :: t)); rewrite ?Hm2, ?Hok; reflexivity.
Qed.

Lemma decoded_subs_has encs : (if existsb has_map encs then map e_ssps encs else []) = decoded_subs encs.
Proof. reflexivity. Qed.

(* EncryptFragment's SencBox for ANY fragment (samples with and without sub-sample maps in any order), written by
   Encode and read back by the decrypt side with the IV size it was written with, is the IV list and the per-sample
   sub-sample lists (empty for the samples without a map) that decryptSamplesInPlace is given in the round-trip
   theorems (C06_iv_sequence_cenc / _cbcs hold for every protection function, mixed ones included) *)
Lemma senc_transport_mixed ivsz encs s box :
  (ivsz = 0 \/ ivsz = 8 \/ ivsz = 16) -> ivs_sized ivsz encs = true ->
  forallb subs_ok (map e_ssps encs) = true -> lenN encs < 4294967296 ->
  senc_of_r senc_empty encs = Ok s -> senc_encode s = Ok box -> lenN box < 4294967296 ->
  exists s', senc_parse ivsz box = Ok s' /\ sn_ivs s' = decoded_ivs encs /\ sn_ss s' = decoded_subs encs /\
             sn_count s' = lenN encs.
Proof.
  intros Hsz Hs Hok Hc Hsenc Henc Hlen.
  assert (Hlt : ivsz < 256) by (destruct Hsz as [-> | [-> | ->]]; lia).
  rewrite (senc_of_r_spec ivsz encs Hlt Hs) in Hsenc. injection Hsenc as <-.
  destruct encs as [|e t].
  - vm_compute in Henc. injection Henc as <-.
    exists (mkSenc 0 false 0 [] []). destruct Hsz as [-> | [-> | ->]]; repeat split; reflexivity.
  - exists (senc_after_r ivsz (e :: t)). split.
    + apply senc_codec; try assumption; [apply senc_after_r_wf; assumption|].
      unfold p_ok, senc_after_r. cbn [sn_ivsize]. rewrite N.eqb_refl. reflexivity.
    + unfold senc_after_r. cbn [sn_ivs sn_ss sn_count]. rewrite (decoded_ivs_sized ivsz) by exact Hs. repeat split.
Qed.

(* the loops of EncryptFragment with a protection function that gives every sample a map, or none: the senc box the
   pinned AddSample leads to is the one of the repaired text, so the decrypt side reads back what the loop stored *)
Lemma senc_transport_uniform ivsz sub (samples : list (list N)) encs s box :
  (ivsz = 0 \/ ivsz = 8 \/ ivsz = 16) -> uniform ivsz sub encs = true /\ length encs = length samples ->
  forallb subs_ok (map e_ssps encs) = true -> lenN samples < 4294967296 ->
  senc_of senc_empty encs = Ok s -> senc_encode s = Ok box -> lenN box < 4294967296 ->
  exists s', senc_parse ivsz box = Ok s' /\ sn_ivs s' = decoded_ivs encs /\ sn_ss s' = decoded_subs encs /\
             sn_count s' = lenN samples.
Proof.
  intros Hsz [U L] Hok Hc Hs Henc Hlen. rewrite <- (lenN_eq encs samples L) in *.
  assert (Hlt : ivsz < 256) by (destruct Hsz as [-> | [-> | ->]]; lia).
  rewrite <- (senc_of_r_uniform ivsz sub encs Hlt U Hc) in Hs.
  exact (senc_transport_mixed ivsz encs s box Hsz (uniform_sized _ _ _ U) Hok Hc Hs Henc Hlen).
Qed.

(* the fragment of known finding C06-F4 (a sample without any protection range next to one with a range): the
   repaired AddSample stores an empty table for the first sample, Encode succeeds and the box is read back *)
Lemma mixed_subsamples_repaired :
  let encs := [mkEnc (repeat 1 16) [] []; mkEnc (repeat 2 16) [mkSsp 5 16] []] in
  exists s box, senc_of_r senc_empty encs = Ok s /\ sn_ss s = [[]; [mkSsp 5 16]] /\ senc_encode s = Ok box /\
                senc_parse 16 box = Ok s /\ lenN box = 16 + (16 + 2) + (16 + 2 + 6).
Proof. do 2 eexists. split; [vm_compute; reflexivity|]. split; [reflexivity|]. split; [vm_compute; reflexivity|]. split; vm_compute; reflexivity. Qed.

(* ---------------------------------------------------------------- a seig group already present in the clear traf *)
(* a seig sample group is protection signalling that EncryptFragment neither writes nor updates; ParseReadSenc lets
   its per-sample IV size override the tenc's.  When it agrees with the tenc nothing changes; when it does not, the
   senc EncryptFragment wrote cannot be read: 16-byte IVs do not fill the data as 8-byte IVs (an error since the
   ParseReadBox fix; before it they were silently read as two 8-byte IVs) *)
Lemma seig_agrees p moof_start senc_start saio box :
  traf_senc_seig p (Some p) moof_start senc_start saio box = traf_senc p moof_start senc_start saio box /\
  traf_senc_seig p None moof_start senc_start saio box = traf_senc p moof_start senc_start saio box.
Proof. split; reflexivity. Qed.

Lemma seig_override_refuted :
  let encs := [mkEnc (repeat 1 16) [] []; mkEnc (repeat 2 16) [] []] in
  exists s box,
    senc_of_r senc_empty encs = Ok s /\ senc_encode s = Ok box /\
    traf_senc_seig 16 None 100 124 (Some 40) box = Ok s /\ sn_ivs s = decoded_ivs encs /\
    traf_senc_seig 16 (Some 8) 100 124 (Some 40) box = Err.
Proof.
  do 2 eexists. split; [vm_compute; reflexivity|]. split; [vm_compute; reflexivity|].
  split; [vm_compute; reflexivity|]. split; vm_compute; reflexivity.
Qed.
