(* C06SencProofs.v — the senc box written by SencBox.Encode is read back by DecodeSenc + ParseReadBox as the same
   SencBox state, for every per-sample IV size (0 / 8 / 16) and every sub-sample layout. *)
From V.lib Require Import Base.
From V.c07 Require Import C07Model C07RangeProofs C07AuxProofs.
From V.c06 Require Import C06Lib C06SencModel.

(* ---------------------------------------------------------------- well-formed SencBox states *)
Definition ssp_ok (p : ssp) : bool := (ss_clear p <? 65536) && (ss_prot p <? 4294967296).
Definition subs_ok (ss : list ssp) : bool := (lenN ss <? 65536) && forallb ssp_ok ss.

(* what AddSample builds: IV size 0 / 8 / 16 with one IV of that size per sample (none when 0), one sub-sample
   list per sample when the flag is set (none otherwise), uint16 / uint32 fields in range *)
Definition senc_wf (s : senc) : bool :=
  ((sn_ivsize s =? 0) || (sn_ivsize s =? 8) || (sn_ivsize s =? 16)) &&
  (if sn_ivsize s =? 0 then match sn_ivs s with [] => true | _ => false end
   else (lenN (sn_ivs s) =? sn_count s) && forallb (fun iv => lenN iv =? sn_ivsize s) (sn_ivs s)) &&
  (if sn_subs s then (lenN (sn_ss s) =? sn_count s) && forallb subs_ok (sn_ss s)
   else match sn_ss s with [] => true | _ => false end) &&
  (sn_count s <? 4294967296) &&
  (negb (sn_count s =? 0) || (sn_ivsize s =? 0)).

(* the perSampleIVSize handed to ParseReadBox (tenc.DefaultPerSampleIVSize): the size the box was written with, or
   0 = "infer" when the box has no sub-sample tables or no per-sample IVs *)
Definition p_ok (p : N) (s : senc) : bool :=
  (p =? sn_ivsize s) || ((p =? 0) && negb (sn_subs s)).

(* ---------------------------------------------------------------- the entries as a list *)
Definition sub_bytes (ss : list ssp) : list N :=
  be_bytes2 (u16 (lenN ss)) ++ flat_map (fun p => be_bytes2 (ss_clear p) ++ be_bytes4 (ss_prot p)) ss.

Fixpoint zip_entries (hasiv subs : bool) (n : nat) (ivs : list (list N)) (ss : list (list ssp)) : list (list N) :=
  match n with
  | O => []
  | S m => ((if hasiv then hd [] ivs else []) ++ (if subs then sub_bytes (hd [] ss) else []))
           :: zip_entries hasiv subs m (tl ivs) (tl ss)
  end.

Lemma skipn_cons_nth {A} : forall i (l : list A) x t,
  skipn i l = x :: t -> nth_error l i = Some x /\ skipn (S i) l = t.
Proof.
  induction i as [|i IH]; intros l x t H.
  - destruct l; cbn in H; [discriminate|]. injection H as -> ->. split; reflexivity.
  - destruct l as [|y l]; cbn [skipn] in H; [discriminate|]. cbn [nth_error]. apply IH in H. exact H.
Qed.

(* the part of a list from position i on, when it has m+1 elements: its head stands at i, its tail from i+1 on *)
Lemma skipn_hd_tl {A} (d : A) i l l' m :
  skipn i l = l' /\ length l' = S m ->
  nth_error l i = Some (hd d l') /\ skipn (S i) l = tl l' /\ length (tl l') = m.
Proof.
  intros [H L]. destruct l' as [|x t]; [discriminate|]. destruct (skipn_cons_nth _ _ _ _ H) as [H1 H2].
  cbn [hd tl length] in *. repeat split; [exact H1|exact H2|lia].
Qed.

Lemma senc_entry_at s i iv x :
  (0 <? sn_ivsize s = true -> nth_error (sn_ivs s) i = Some iv) ->
  (sn_subs s = true -> nth_error (sn_ss s) i = Some x) ->
  senc_entry s i = Ok ((if 0 <? sn_ivsize s then iv else []) ++ (if sn_subs s then sub_bytes x else [])).
Proof.
  intros Hi Hs. unfold senc_entry, nth_res.
  destruct (0 <? sn_ivsize s); [rewrite Hi by reflexivity|]; (destruct (sn_subs s); [rewrite Hs by reflexivity|]);
    reflexivity.
Qed.

Lemma entries_spec s : forall n i ivs ss,
  (0 <? sn_ivsize s = true -> skipn i (sn_ivs s) = ivs /\ length ivs = n) ->
  (sn_subs s = true -> skipn i (sn_ss s) = ss /\ length ss = n) ->
  senc_entries s i n = Ok (zip_entries (0 <? sn_ivsize s) (sn_subs s) n ivs ss).
Proof.
  induction n as [|m IH]; intros i ivs ss Hiv Hss; [reflexivity|].
  cbn [senc_entries zip_entries].
  rewrite (senc_entry_at s i (hd [] ivs) (hd [] ss)), (IH (S i) (tl ivs) (tl ss)); [reflexivity|..].
  - intros Hb. apply (skipn_hd_tl [] i _ _ m (Hiv Hb)).
  - intros Hb. apply (skipn_hd_tl [] i _ _ m (Hss Hb)).
  - intros Hb. apply (skipn_hd_tl [] i _ _ m (Hiv Hb)).
  - intros Hb. apply (skipn_hd_tl [] i _ _ m (Hss Hb)).
Qed.

Lemma sub_bytes_len ss : lenN (sub_bytes ss) = 2 + 6 * lenN ss.
Proof.
  unfold sub_bytes. rewrite lenN_app, flat_map_len6. change (lenN (be_bytes2 (u16 (lenN ss)))) with 2. lia.
Qed.

(* calcSize adds up exactly the lengths of the entries, when all IVs have the declared size *)
Lemma calc_loop_spec s : forall n i ivs ss,
  (0 <? sn_ivsize s = true -> length ivs = n /\ forallb (fun iv => lenN iv =? sn_ivsize s) ivs = true) ->
  (sn_subs s = true -> skipn i (sn_ss s) = ss /\ length ss = n) ->
  senc_calc_loop s i n = Ok (sumN (map (fun e => lenN e) (zip_entries (0 <? sn_ivsize s) (sn_subs s) n ivs ss))).
Proof.
  induction n as [|m IH]; intros i ivs ss Hiv Hss; [reflexivity|].
  cbn [senc_calc_loop zip_entries map sumN]. rewrite lenN_app.
  assert (Hi : lenN (if 0 <? sn_ivsize s then hd [] ivs else []) = sn_ivsize s /\
               (0 <? sn_ivsize s = true ->
                length (tl ivs) = m /\ forallb (fun iv => lenN iv =? sn_ivsize s) (tl ivs) = true)).
  { destruct (0 <? sn_ivsize s) eqn:Ei; [|apply N.ltb_ge in Ei; split; [change (lenN (@nil N)) with 0; lia|discriminate]].
    destruct (Hiv eq_refl) as [L F]. destruct ivs as [|iv ivs]; [discriminate|].
    cbn [forallb] in F. apply andb_true_iff in F. destruct F as [F0 F]. apply N.eqb_eq in F0.
    split; [exact F0|]. intros _. split; [cbn [tl length] in *; lia|exact F]. }
  assert (Hs : (if sn_subs s then do x <- nth_res (sn_ss s) i; Ok (2 + 6 * lenN x) else Ok 0)
               = Ok (lenN (if sn_subs s then sub_bytes (hd [] ss) else [])) /\
               (sn_subs s = true -> skipn (S i) (sn_ss s) = tl ss /\ length (tl ss) = m)).
  { destruct (sn_subs s); [|split; [reflexivity|discriminate]].
    destruct (skipn_hd_tl [] i _ _ m (Hss eq_refl)) as (H1 & H2 & H3).
    unfold nth_res. rewrite H1, sub_bytes_len. split; [reflexivity|]. intros _. split; assumption. }
  rewrite (proj1 Hs), (IH (S i) (tl ivs) (tl ss) (proj2 Hi) (proj2 Hs)). cbn [rbind]. rewrite (proj1 Hi). reflexivity.
Qed.

Lemma lenN_concat (l : list (list N)) : lenN (concat l) = sumN (map (fun e => lenN e) l).
Proof. induction l as [|x t IH]; [reflexivity|]. cbn [concat map sumN]. rewrite lenN_app, IH. reflexivity. Qed.

(* with sub-sample tables every entry has at least the 2 bytes of its count *)
Lemma zip_entries_min hasiv : forall n ivs ss, 2 * N.of_nat n <= lenN (concat (zip_entries hasiv true n ivs ss)).
Proof.
  induction n as [|m IH]; intros ivs ss; [cbn; lia|].
  cbn [zip_entries concat]. rewrite !lenN_app, sub_bytes_len. specialize (IH (tl ivs) (tl ss)). lia.
Qed.

(* ---------------------------------------------------------------- reading back *)
Lemma be2_be x : x < 65536 -> be (be_bytes2 x) = x.
Proof. intros H. unfold be_bytes2, be, u8. cbn [fold_left]. lia. Qed.

Lemma read_ssps_spec : forall ss rest,
  forallb ssp_ok ss = true ->
  read_ssps (length ss) (flat_map (fun p => be_bytes2 (ss_clear p) ++ be_bytes4 (ss_prot p)) ss ++ rest) = (ss, rest).
Proof.
  induction ss as [|p t IH]; intros rest H; [reflexivity|].
  cbn [forallb] in H. apply andb_true_iff in H. destruct H as [Hp Ht].
  unfold ssp_ok in Hp. apply andb_true_iff in Hp. destruct Hp as [Hc Hq].
  apply N.ltb_lt in Hc. apply N.ltb_lt in Hq.
  cbn [length read_ssps flat_map]. rewrite <- !app_assoc.
  (* the six bytes of a pair are an explicit list *)
  change (firstn 2 (be_bytes2 (ss_clear p) ++ ?r)) with (be_bytes2 (ss_clear p)).
  change (firstn 4 (skipn 2 (be_bytes2 (ss_clear p) ++ be_bytes4 (ss_prot p) ++ ?r))) with (be_bytes4 (ss_prot p)).
  change (skipn 6 (be_bytes2 (ss_clear p) ++ be_bytes4 (ss_prot p) ++ ?r)) with r.
  rewrite IH, be2_be, be_bytes4_be by assumption. destruct p. reflexivity.
Qed.

Lemma lenN_of_length {A} (l : list A) n : length l = n -> lenN l = N.of_nat n.
Proof. intros <-. reflexivity. Qed.

(* a table with in-range fields, followed by anything, passes the room checks of parseAndFillSamples and is read back *)
Lemma sub_bytes_read x rest :
  subs_ok x = true ->
  lenN (sub_bytes x ++ rest) <? 2 = false /\ be (firstn 2 (sub_bytes x ++ rest)) = lenN x /\
  lenN (skipn 2 (sub_bytes x ++ rest)) <? lenN x * 6 = false /\
  read_ssps (length x) (skipn 2 (sub_bytes x ++ rest)) = (x, rest).
Proof.
  unfold subs_ok. intros H. apply andb_true_iff in H. destruct H as [Fl Fp]. apply N.ltb_lt in Fl.
  split; [apply N.ltb_ge; rewrite lenN_app, sub_bytes_len; lia|].
  unfold sub_bytes. rewrite <- app_assoc.
  change (firstn 2 (be_bytes2 (u16 (lenN x)) ++ ?r)) with (be_bytes2 (u16 (lenN x))).
  change (skipn 2 (be_bytes2 (u16 (lenN x)) ++ ?r)) with r.
  split; [unfold u16; rewrite N.mod_small by exact Fl; apply be2_be; exact Fl|].
  split; [apply N.ltb_ge; rewrite lenN_app, flat_map_len6; lia|apply read_ssps_spec; exact Fp].
Qed.

(* parseAndFillSamples on the entries written with the same IV size gives back the IVs and the tables *)
Lemma parse_fill_spec ivsz : forall n ivs ss,
  (0 <? ivsz = true -> length ivs = n /\ forallb (fun iv => lenN iv =? ivsz) ivs = true) ->
  (0 <? ivsz = false -> ivs = []) ->
  length ss = n -> forallb subs_ok ss = true ->
  parse_fill n ivsz (concat (zip_entries (0 <? ivsz) true n ivs ss)) = Some (ivs, ss, []).
Proof.
  induction n as [|m IH]; intros ivs ss Hiv Hno Lss Fss.
  - destruct ss; [|discriminate]. replace ivs with (@nil (list N)); [reflexivity|].
    destruct (0 <? ivsz) eqn:Ei; [|symmetry; apply Hno; reflexivity].
    destruct (Hiv eq_refl) as [L _]. destruct ivs; [reflexivity|discriminate].
  - destruct ss as [|x ss]; [discriminate|]. cbn [forallb] in Fss. apply andb_true_iff in Fss. destruct Fss as [Fx Fss].
    cbn [zip_entries concat hd tl parse_fill].
    set (pre := if 0 <? ivsz then hd [] ivs else []).
    set (rest := concat (zip_entries (0 <? ivsz) true m (tl ivs) ss)).
    (* the IV part has ivsz bytes whether or not there is one *)
    assert (Hpre : lenN pre = ivsz /\ (if 0 <? ivsz then pre :: tl ivs else tl ivs) = ivs /\
                   (0 <? ivsz = true -> length (tl ivs) = m /\ forallb (fun iv => lenN iv =? ivsz) (tl ivs) = true) /\
                   (0 <? ivsz = false -> tl ivs = [])).
    { unfold pre. destruct (0 <? ivsz) eqn:Ei.
      - destruct (Hiv eq_refl) as [L F]. destruct ivs as [|iv ivs]; [discriminate|].
        cbn [forallb] in F. apply andb_true_iff in F. destruct F as [F0 F]. apply N.eqb_eq in F0.
        cbn [hd tl length] in *. repeat split; try assumption; try discriminate. lia.
      - rewrite (Hno eq_refl). apply N.ltb_ge in Ei. repeat split; try discriminate. change (lenN (@nil N)) with 0. lia. }
    destruct Hpre as (Lpre & Eivs & Hiv' & Hno').
    destruct (sub_bytes_read x rest Fx) as (Hs & Hc & Hroom & Hread).
    rewrite <- app_assoc.
    assert (Hlt : lenN (pre ++ sub_bytes x ++ rest) <? ivsz = false) by (apply N.ltb_ge; rewrite lenN_app; lia).
    rewrite Hlt, andb_false_r, firstn_app_exact, skipn_app_exact by (unfold lenN in Lpre; lia).
    rewrite Hs, Hc, Hroom. unfold lenN at 1. rewrite Nat2N.id, Hread.
    unfold rest. rewrite IH by (try assumption; cbn in Lss; lia). rewrite Eivs. reflexivity.
Qed.

(* the plain IV table (no sub-sample tables) *)
Lemma read_ivs_spec sz : forall n ivs,
  length ivs = n -> forallb (fun iv => lenN iv =? N.of_nat sz) ivs = true ->
  read_ivs n sz (concat (zip_entries true false n ivs [])) = ivs.
Proof.
  induction n as [|m IH]; intros ivs L F.
  - destruct ivs; [reflexivity|discriminate].
  - destruct ivs as [|iv ivs]; [discriminate|]. cbn [forallb] in F. apply andb_true_iff in F. destruct F as [F0 F].
    apply N.eqb_eq in F0. unfold lenN in F0.
    cbn [zip_entries concat hd tl read_ivs]. rewrite app_nil_r.
    rewrite firstn_app_exact, skipn_app_exact by lia.
    change (@tl (list ssp) []) with (@nil (list ssp)). rewrite IH; [reflexivity|cbn in L; lia|exact F].
Qed.

Lemma ivs_only_len sz : forall n ivs ss,
  length ivs = n -> forallb (fun iv => lenN iv =? sz) ivs = true ->
  lenN (concat (zip_entries true false n ivs ss)) = sz * N.of_nat n.
Proof.
  induction n as [|m IH]; intros ivs ss L F; [cbn; lia|].
  destruct ivs as [|iv ivs]; [discriminate|]. cbn [forallb] in F. apply andb_true_iff in F. destruct F as [F0 F].
  apply N.eqb_eq in F0. cbn [zip_entries concat hd tl]. rewrite !lenN_app.
  rewrite (IH ivs (tl ss)) by (cbn in L; try lia; exact F). change (lenN (@nil N)) with 0. lia.
Qed.

Lemma zip_entries_ss_irrel hasiv : forall n ivs ss ss',
  zip_entries hasiv false n ivs ss = zip_entries hasiv false n ivs ss'.
Proof. induction n as [|m IH]; intros; [reflexivity|]. cbn [zip_entries]. f_equal. apply IH. Qed.

Lemma zip_entries_none : forall n ivs ss, concat (zip_entries false false n ivs ss) = [].
Proof. induction n as [|m IH]; intros; [reflexivity|]. cbn [zip_entries concat app]. apply IH. Qed.

(* ---------------------------------------------------------------- DecodeSenc on a box laid out by Encode *)
Definition senc_box (subs : bool) (count : N) (raw : list N) : list N :=
  be_bytes4 (16 + lenN raw) ++ cc_senc_bytes ++ [0; 0; 0; (if subs then 2 else 0)] ++ be_bytes4 count ++ raw.

Lemma senc_box_len subs count raw : lenN (senc_box subs count raw) = 16 + lenN raw.
Proof. unfold senc_box. rewrite !lenN_app. change (lenN (be_bytes4 _)) with 4. cbn [lenN length cc_senc_bytes N.of_nat]. lia. Qed.

Lemma decode_layout subs count raw :
  16 + lenN raw < 4294967296 -> count < 4294967296 -> (subs = true -> 2 * count <= lenN raw) ->
  senc_decode (senc_box subs count raw)
  = Ok (mkRaw (if subs then 2 else 0) count raw (negb ((count =? 0) || (lenN raw =? 0)))).
Proof.
  intros Hs Hc Hmin. unfold senc_decode. rewrite senc_box_len.
  change (firstn 4 (senc_box subs count raw)) with (be_bytes4 (16 + lenN raw)).
  change (firstn 4 (skipn 4 (senc_box subs count raw))) with cc_senc_bytes.
  change (firstn 4 (skipn 8 (senc_box subs count raw))) with [0; 0; 0; (if subs then 2 else 0)].
  change (firstn 4 (skipn 12 (senc_box subs count raw))) with (be_bytes4 count).
  change (skipn 16 (senc_box subs count raw)) with raw.
  rewrite !be_bytes4_be by assumption.
  change (bytes_eqb cc_senc_bytes cc_senc_bytes) with true. rewrite N.eqb_refl. cbn [negb].
  assert (H16 : 16 + lenN raw <? 16 = false) by (apply N.ltb_ge; lia). rewrite H16.
  destruct subs; [|reflexivity].
  assert (Hm : lenN raw <? 2 * count = false) by (apply N.ltb_ge; auto). rewrite Hm. reflexivity.
Qed.

(* ---------------------------------------------------------------- the codec theorem *)
Lemma senc_eta s : s = mkSenc (sn_ivsize s) (sn_subs s) (sn_count s) (sn_ivs s) (sn_ss s).
Proof. destruct s; reflexivity. Qed.

Lemma senc_ext a iv sb c ivs ss :
  sn_ivsize a = iv -> sn_subs a = sb -> sn_count a = c -> sn_ivs a = ivs -> sn_ss a = ss ->
  Ok (mkSenc iv sb c ivs ss) = Ok a.
Proof. intros; subst; destruct a; reflexivity. Qed.

(* senc_wf, clause by clause *)
Lemma senc_wf_fields s : senc_wf s = true ->
  sn_count s < 4294967296 /\
  (sn_ivsize s = 0 \/ sn_ivsize s = 8 \/ sn_ivsize s = 16) /\
  (0 <? sn_ivsize s = true ->
   length (sn_ivs s) = N.to_nat (sn_count s) /\ forallb (fun iv => lenN iv =? sn_ivsize s) (sn_ivs s) = true) /\
  (0 <? sn_ivsize s = false -> sn_ivs s = []) /\
  (sn_subs s = true -> length (sn_ss s) = N.to_nat (sn_count s) /\ forallb subs_ok (sn_ss s) = true) /\
  (sn_subs s = false -> sn_ss s = []) /\
  (sn_count s = 0 -> sn_ivsize s = 0).
Proof.
  unfold senc_wf. intros H. repeat (apply andb_true_iff in H; destruct H as [H ?]).
  rename H into Hsz, H0 into Hzero, H1 into Hcnt, H2 into Hss, H3 into Hivs. apply N.ltb_lt in Hcnt.
  split; [exact Hcnt|]. split; [|split; [|split; [|split; [|split]]]].
  - apply orb_true_iff in Hsz. destruct Hsz as [Hsz|Hsz]; [apply orb_true_iff in Hsz; destruct Hsz as [Hsz|Hsz]|];
      apply N.eqb_eq in Hsz; auto.
  - intros Hp. apply N.ltb_lt in Hp. destruct (sn_ivsize s =? 0) eqn:E0; [apply N.eqb_eq in E0; lia|].
    apply andb_true_iff in Hivs. destruct Hivs as [L F]. apply N.eqb_eq in L. unfold lenN in L. split; [lia|exact F].
  - intros Hp. apply N.ltb_ge in Hp. replace (sn_ivsize s =? 0) with true in Hivs by (symmetry; apply N.eqb_eq; lia).
    destruct (sn_ivs s); [reflexivity|discriminate].
  - intros Hs. rewrite Hs in Hss. apply andb_true_iff in Hss. destruct Hss as [L F].
    apply N.eqb_eq in L. unfold lenN in L. split; [lia|exact F].
  - intros Hs. rewrite Hs in Hss. destruct (sn_ss s); [reflexivity|discriminate].
  - intros Hc. apply orb_true_iff in Hzero. destruct Hzero as [Hz|Hz]; [|apply N.eqb_eq; exact Hz].
    apply negb_true_iff, N.eqb_neq in Hz. contradiction.
Qed.

(* the per-sample data Encode writes behind the 16 bytes of header, version / flags and sample_count *)
Definition senc_payload (s : senc) : list N :=
  concat (zip_entries (0 <? sn_ivsize s) (sn_subs s) (N.to_nat (sn_count s)) (sn_ivs s) (sn_ss s)).

Lemma senc_encode_box s box :
  senc_wf s = true -> senc_encode s = Ok box -> box = senc_box (sn_subs s) (sn_count s) (senc_payload s).
Proof.
  intros Hwf Henc. destruct (senc_wf_fields s Hwf) as (_ & _ & Hivs & _ & Hss & _ & _).
  unfold senc_encode, senc_calc_size, senc_payload in *.
  destruct ((sn_ivsize s =? 0) && negb (sn_subs s)) eqn:Etriv.
  - apply andb_true_iff in Etriv. destruct Etriv as [Ez Ens]. apply N.eqb_eq in Ez. apply negb_true_iff in Ens.
    rewrite Ez, Ens, zip_entries_none in *. injection Henc as <-. reflexivity.
  - assert (Hss0 : sn_subs s = true -> skipn 0 (sn_ss s) = sn_ss s /\ length (sn_ss s) = N.to_nat (sn_count s))
      by (intros Hb; split; [reflexivity|apply Hss; exact Hb]).
    rewrite (calc_loop_spec s _ 0%nat (sn_ivs s) (sn_ss s) Hivs Hss0) in Henc.
    rewrite (entries_spec s _ 0%nat (sn_ivs s) (sn_ss s)) in Henc
      by first [exact Hss0|intros Hb; split; [reflexivity|apply Hivs; exact Hb]].
    cbn [rbind] in Henc. rewrite <- lenN_concat in Henc.
    set (raw := concat _) in *.
    replace (16 + lenN raw <? 8 + lenN ([0; 0; 0; (if sn_subs s then 2 else 0)] ++ be_bytes4 (sn_count s) ++ raw))
      with false in Henc by (symmetry; apply N.ltb_ge; rewrite !lenN_app; change (lenN (be_bytes4 _)) with 4; cbn [lenN length N.of_nat]; lia).
    injection Henc as <-. reflexivity.
Qed.

Lemma senc_parse_box s p :
  senc_wf s = true -> p_ok p s = true -> 16 + lenN (senc_payload s) < 4294967296 ->
  senc_parse p (senc_box (sn_subs s) (sn_count s) (senc_payload s)) = Ok s.
Proof.
  intros Hwf Hp Hlen. destruct (senc_wf_fields s Hwf) as (Hcnt & Hsz & Hivs & Hnoiv & Hss & Hnoss & Hzero).
  unfold senc_parse, senc_payload in *. set (n := N.to_nat (sn_count s)) in *.
  assert (Hn : N.of_nat n = sn_count s) by (unfold n; lia).
  destruct (sn_subs s) eqn:Esub.
  - (* sub-sample tables: ParseReadBox is given the written IV size *)
    destruct (Hss eq_refl) as [Lss Fss].
    pose proof (zip_entries_min (0 <? sn_ivsize s) n (sn_ivs s) (sn_ss s)) as Hmin. rewrite Hn in Hmin.
    rewrite decode_layout by (try assumption; intros _; exact Hmin).
    unfold p_ok in Hp. rewrite Esub, andb_false_r, orb_false_r in Hp. apply N.eqb_eq in Hp. subst p.
    cbn [rbind r_pending r_flags r_count r_raw]. change (N.land 2 2 =? 0) with false. cbn [negb].
    destruct (sn_count s =? 0) eqn:Ec0.
    + apply N.eqb_eq in Ec0. cbn [orb negb].
      assert (Hiv0 : sn_ivs s = []) by (apply Hnoiv; rewrite (Hzero Ec0); reflexivity).
      assert (Hss0 : sn_ss s = []) by (destruct (sn_ss s); [reflexivity|unfold n in Lss; rewrite Ec0 in Lss; discriminate]).
      apply senc_ext; auto.
    + apply N.eqb_neq in Ec0.
      replace (lenN _ =? 0) with false by (symmetry; apply N.eqb_neq; lia).
      cbn [orb negb]. unfold parse_read_box. cbn [r_pending negb r_flags r_count r_raw].
      change (N.land 2 2 =? 0) with false.
      assert (Hpf : parse_and_fill (sn_count s) (sn_ivsize s) (concat (zip_entries (0 <? sn_ivsize s) true n (sn_ivs s) (sn_ss s)))
                    = Some (sn_ivs s, sn_ss s)).
      { unfold parse_and_fill. fold n. rewrite parse_fill_spec by assumption. reflexivity. }
      destruct (sn_ivsize s =? 0) eqn:E0; cbn [negb].
      * apply N.eqb_eq in E0. rewrite E0 in Hpf |- *. rewrite Hpf. apply senc_ext; auto.
      * rewrite Hpf. apply senc_ext; auto.
  - rewrite (Hnoss eq_refl) in *. rewrite decode_layout by (try assumption; discriminate).
    cbn [rbind r_pending r_flags r_count r_raw]. change (N.land 0 2 =? 0) with true. cbn [negb].
    destruct (0 <? sn_ivsize s) eqn:Epos.
    + (* IVs only: the size is the one given, or inferred from the room *)
      destruct (Hivs eq_refl) as [Livs Fivs]. apply N.ltb_lt in Epos.
      assert (Hc0 : sn_count s <> 0) by (intros Hc; rewrite (Hzero Hc) in Epos; lia).
      assert (Hraw : lenN (concat (zip_entries true false n (sn_ivs s) [])) = sn_ivsize s * sn_count s)
        by (rewrite <- Hn; apply ivs_only_len; assumption).
      rewrite Hraw in *.
      replace (sn_count s =? 0) with false by (symmetry; apply N.eqb_neq; exact Hc0).
      replace (sn_ivsize s * sn_count s =? 0) with false by (symmetry; apply N.eqb_neq; nia).
      cbn [orb negb]. unfold parse_read_box. cbn [r_pending negb r_flags r_count r_raw].
      change (N.land 0 2 =? 0) with true. cbv iota. rewrite Hraw. unfold u32. rewrite N.mod_small by lia.
      assert (H816 : sn_ivsize s = 8 \/ sn_ivsize s = 16) by (destruct Hsz as [?|?]; [lia|assumption]).
      assert (Hp' : (if p =? 0 then (if sn_count s =? 0 then Panic else Ok (u8 (sn_ivsize s * sn_count s / sn_count s))) else Ok p)
                    = Ok (sn_ivsize s)).
      { unfold p_ok in Hp. destruct (p =? 0) eqn:Ep0.
        - replace (sn_count s =? 0) with false by (symmetry; apply N.eqb_neq; exact Hc0).
          rewrite N.div_mul by exact Hc0. unfold u8. rewrite N.mod_small by (destruct H816 as [-> | ->]; lia). reflexivity.
        - rewrite orb_false_r in Hp. apply N.eqb_eq in Hp. subst p. reflexivity. }
      rewrite Hp'. cbn [rbind]. rewrite N.eqb_refl. cbn [negb].
      replace (sn_ivsize s =? 0) with false by (symmetry; apply N.eqb_neq; lia).
      replace ((sn_ivsize s =? 8) || (sn_ivsize s =? 16)) with true by (destruct H816 as [-> | ->]; reflexivity).
      fold n. rewrite read_ivs_spec by (try rewrite N2Nat.id; assumption). apply senc_ext; auto.
    + rewrite zip_entries_none. change (lenN (@nil N) =? 0) with true. rewrite orb_true_r. cbn [negb].
      pose proof (Hnoiv eq_refl). pose proof (Hnoss eq_refl). apply N.ltb_ge in Epos. apply senc_ext; auto. lia.
Qed.

Lemma senc_codec s p box :
  senc_wf s = true -> p_ok p s = true ->
  senc_encode s = Ok box -> lenN box < 4294967296 ->
  senc_parse p box = Ok s.
Proof.
  intros Hwf Hp Henc Hlen. rewrite (senc_encode_box s box Hwf Henc) in *. rewrite senc_box_len in Hlen.
  apply senc_parse_box; assumption.
Qed.
