(* C06SampleProofs.v — decryptSamplesInPlace uses, for every sample, the IV and sub-sample map EncryptFragment
   stored for it (C06_iv_sequence), hence restores every sample. *)
From V.lib Require Import Base.
From V.c07 Require Import C07Model C07CryptProofs C07TrafModel.
From V.c06 Require Import C06Lib C06Model C06CencProofs C06CbcsProofs.

Lemma copy_into_same dst src : length src = length dst -> copy_into dst src = src.
Proof.
  intros H. unfold copy_into. rewrite <- H, firstn_all, H, skipn_all. apply app_nil_r.
Qed.

Lemma nth_res_some {A} (l : list A) i x : nth_error l i = Some x -> nth_res l i = Ok x.
Proof. intros H. unfold nth_res. rewrite H. reflexivity. Qed.

(* the sub-sample list the decoder hands over for sample number i+j is the one stored for it *)
Definition subs_at (subs : list (list ssp)) (i : nat) (l : list enc_sample) : Prop :=
  forall j e, nth_error l j = Some e ->
    match subs with [] => e_ssps e = [] | _ => nth_error subs (i + j) = Some (e_ssps e) end.

(* one turn of the loop: the lookup finds the map of the sample at hand, and the rest is served from i+1 on *)
Lemma subs_at_step subs i e l :
  subs_at subs i (e :: l) ->
  match subs with [] => Ok [] | _ => nth_res subs i end = Ok (e_ssps e) /\ subs_at subs (S i) l.
Proof.
  intros H. split.
  - pose proof (H 0%nat e eq_refl) as H0. destruct subs; [rewrite H0; reflexivity|].
    rewrite Nat.add_0_r in H0. apply nth_res_some. exact H0.
  - intros j e' Hj. specialize (H (S j) e' Hj). destruct subs; [exact H|].
    replace (S i + j)%nat with (i + S j)%nat by lia. exact H.
Qed.

Lemma decoded_subs_at l : subs_at (decoded_subs l) 0 l.
Proof.
  unfold subs_at, decoded_subs. intros j e Hj.
  destruct (existsb (fun e => match e_ssps e with [] => false | _ => true end) l) eqn:Ex.
  - destruct l as [|a t]; [destruct j; discriminate|]. apply (map_nth_error e_ssps j (a :: t) Hj).
  - destruct (e_ssps e) eqn:Es; [reflexivity|].
    rewrite (proj2 (existsb_exists _ l)) in Ex; [discriminate|].
    exists e. split; [apply nth_error_In with j; exact Hj|rewrite Es; reflexivity].
Qed.

Definition fits (s : list N) (ssps : list ssp) : Prop :=
  sumN (map (fun p => ss_clear p + ss_prot p) ssps) <= lenN s /\ lenN s < 4294967296.

Section Samples.
  Variable E : list N -> list N -> list N.
  Variable D : list N -> list N -> list N.
  Variable protfunc : list N -> res (list ssp).
  Variable key : list N.

  (* ---------------------------------------------------------------- cenc *)
  Lemma dec_loop_cenc cb sb ivs subs : forall samples l,
    Forall2 (stored_cenc E protfunc key) samples l ->
    forall i ivbuf, length ivbuf = 16%nat ->
    (forall j e, nth_error l j = Some e -> nth_error ivs (i + j) = Some (e_iv e)) ->
    subs_at subs i l ->
    dec_loop E D Cenc key cb sb ivs subs true i ivbuf (map e_data l) = Ok samples.
  Proof.
    induction 1 as [|s e samples l (_ & Hc & Hl) _ IH]; intros i ivbuf Hb Hiv Hsub; [reflexivity|].
    cbn [map dec_loop].
    pose proof (Hiv 0%nat e eq_refl) as H0. rewrite Nat.add_0_r in H0.
    rewrite (nth_res_some _ _ _ H0). cbn [rbind].
    (* a 16-byte IV overwrites the whole buffer *)
    assert (H16 : (lenN (e_iv e) <? 16) = false) by (apply N.ltb_ge; unfold lenN; rewrite Hl; reflexivity).
    rewrite H16, copy_into_same by lia.
    destruct (subs_at_step _ _ _ _ Hsub) as [Hss Hsub']. rewrite Hss. cbn [rbind].
    rewrite (crypt_sample_cenc_involution E key _ _ _ _ Hc). cbn [rbind].
    rewrite (IH (S i) (e_iv e) Hl); [reflexivity| |exact Hsub'].
    intros j e' Hj. replace (S i + j)%nat with (i + S j)%nat by lia. apply Hiv. exact Hj.
  Qed.

  (* cenc: the decrypted samples are the clear ones; in particular sample i is decrypted with the IV stored for
     sample i (the 16-byte IV buffer is overwritten by senc.IVs[i] before every sample) *)
  Lemma samples_roundtrip_cenc iv samples encs cb sb constiv :
    length iv = 16%nat ->
    encrypt_samples_cenc E protfunc key iv samples = Ok encs ->
    decrypt_samples E D Cenc key constiv cb sb (decoded_ivs encs) (decoded_subs encs) (map e_data encs)
    = Ok samples.
  Proof.
    intros Hl Henc. pose proof (encrypt_samples_cenc_stored E protfunc key samples iv encs Hl Henc) as HR.
    unfold decrypt_samples.
    rewrite (decoded_ivs_sized 16) by
      (apply (Forall2_forallb _ _ _ _ HR); intros s e _ (_ & _ & H16); unfold lenN; rewrite H16; reflexivity).
    cbn [N.eqb]. rewrite !map_length, Nat.eqb_refl.
    apply dec_loop_cenc; try exact HR.
    - unfold copy_into. rewrite app_length, firstn_length, skipn_length, repeat_length. lia.
    - intros j e Hj. apply map_nth_error. exact Hj.
    - apply decoded_subs_at.
  Qed.

  Lemma encrypt_samples_cenc_lengths iv samples encs :
    length iv = 16%nat -> encrypt_samples_cenc E protfunc key iv samples = Ok encs ->
    map (@length N) (map e_data encs) = map (@length N) samples.
  Proof.
    intros Hl Henc. rewrite map_map. symmetry.
    apply (Forall2_map_eq _ _ _ _ _ (encrypt_samples_cenc_stored E protfunc key samples iv encs Hl Henc)).
    intros s e (_ & Hc & _). symmetry. exact (crypt_sample_cenc_length E key _ _ _ _ Hc).
  Qed.

  (* ---------------------------------------------------------------- cbcs *)
  Variable iv : list N.
  Variable cb sb : N.

  (* D inverts E on blocks, and aes.NewCipher accepts the key *)
  Definition cbcs_ok : Prop :=
    (forall k b, length (E k b) = 16%nat) /\ (forall k b, length (D k b) = 16%nat) /\
    (forall k b, length b = 16%nat -> D k (E k b) = b) /\ key_ok key = true.

  Hypothesis Hiv : length iv = 16%nat.

  Lemma dec_loop_cbcs ivs subs : cbcs_ok -> forall samples l,
    Forall2 (fun s e => stored_cbcs E D protfunc key iv cb sb s e /\ fits s (e_ssps e)) samples l ->
    forall i, subs_at subs i l ->
    dec_loop E D Cbcs key cb sb ivs subs false i iv (map e_data l) = Ok samples.
  Proof.
    intros (HE & HD & HDE & Hkey).
    induction 1 as [|s e samples l ((_ & Hc & _) & Hf1 & Hf2) _ IH]; intros i Hsub; [reflexivity|].
    cbn [map dec_loop rbind].
    destruct (subs_at_step _ _ _ _ Hsub) as [Hss Hsub']. rewrite Hss. cbn [rbind].
    rewrite (crypt_sample_cbcs_inverse E D key HE HD HDE iv (e_ssps e) cb sb s (e_data e) Hkey Hiv Hf1 Hf2 Hc).
    cbn [rbind]. rewrite (IH (S i) Hsub'). reflexivity.
  Qed.

  Lemma encrypt_samples_cbcs_fit samples encs :
    encrypt_samples_cbcs E D protfunc key iv cb sb samples = Ok encs ->
    (forall s ssps, In s samples -> protfunc s = Ok ssps -> fits s ssps) ->
    Forall2 (fun s e => stored_cbcs E D protfunc key iv cb sb s e /\ fits s (e_ssps e)) samples encs.
  Proof.
    intros Henc Hfit. apply (Forall2_impl_In _ _ _ _ (encrypt_samples_cbcs_stored E D protfunc key iv cb sb samples encs Henc)).
    intros s e Hin Hs. split; [exact Hs|]. apply Hfit; [exact Hin|apply Hs].
  Qed.

  (* cbcs: no per-sample IVs are stored; the decrypt side uses tenc's constant IV (= the padded encryption IV) *)
  Lemma samples_roundtrip_cbcs samples encs :
    cbcs_ok ->
    encrypt_samples_cbcs E D protfunc key iv cb sb samples = Ok encs ->
    (forall s ssps, In s samples -> protfunc s = Ok ssps -> fits s ssps) ->
    decrypt_samples E D Cbcs key iv cb sb (decoded_ivs encs) (decoded_subs encs) (map e_data encs) = Ok samples.
  Proof.
    intros Hok Henc Hfit. pose proof (encrypt_samples_cbcs_fit samples encs Henc Hfit) as HR.
    unfold decrypt_samples.
    rewrite (decoded_ivs_sized 0) by (apply (Forall2_forallb _ _ _ _ HR); intros s e _ ((_ & _ & ->) & _); reflexivity).
    cbn [N.eqb]. rewrite copy_into_same by (rewrite repeat_length; exact Hiv).
    destruct encs as [|e0 t]; [inversion HR; reflexivity|].
    apply (dec_loop_cbcs _ _ Hok samples (e0 :: t) HR). apply decoded_subs_at.
  Qed.

  Lemma encrypt_samples_cbcs_lengths samples encs :
    cbcs_ok ->
    (forall s ssps, In s samples -> protfunc s = Ok ssps -> fits s ssps) ->
    encrypt_samples_cbcs E D protfunc key iv cb sb samples = Ok encs ->
    map (@length N) (map e_data encs) = map (@length N) samples.
  Proof.
    intros (HE & HD & _ & Hkey) Hfit Henc. rewrite map_map. symmetry.
    apply (Forall2_map_eq _ _ _ _ _ (encrypt_samples_cbcs_fit samples encs Henc Hfit)).
    intros s e ((_ & Hc & _) & Hf1 & Hf2). symmetry.
    exact (crypt_sample_cbcs_len E D key HE HD false iv _ cb sb s _ Hkey Hiv Hf1 Hf2 Hc).
  Qed.
End Samples.

(* ---------------------------------------------------------------- either scheme *)
Section Scheme.
  Variable E : list N -> list N -> list N.
  Variable D : list N -> list N -> list N.
  Variable protfunc : list N -> res (list ssp).

  (* what the round trip of a scheme asks for: nothing for cenc; for cbcs an invertible block function, the
     encryption IV as tenc's constant IV, and maps that lie inside their samples *)
  Definition scheme_ok (sch : scheme) (key iv constiv : list N) (samples : list (list N)) : Prop :=
    match sch with
    | Cbcs => cbcs_ok E D key /\ constiv = iv /\
              forall s ssps, In s samples -> protfunc s = Ok ssps -> fits s ssps
    | _ => True
    end.

  Lemma scheme_ok_cbcs key iv samples :
    (forall k b, length (E k b) = 16%nat) -> (forall k b, length (D k b) = 16%nat) ->
    (forall k b, length b = 16%nat -> D k (E k b) = b) -> key_ok key = true ->
    (forall s ssps, In s samples -> protfunc s = Ok ssps -> fits s ssps) ->
    scheme_ok Cbcs key iv iv samples.
  Proof. intros HE HD HDE Hk Hfit. split; [repeat split; assumption|split; [reflexivity|exact Hfit]]. Qed.

  Lemma samples_roundtrip sch key iv constiv cb sb samples encs :
    length iv = 16%nat -> scheme_ok sch key iv constiv samples ->
    encrypt_samples E D protfunc sch key iv cb sb samples = Ok encs ->
    decrypt_samples E D sch key constiv cb sb (decoded_ivs encs) (decoded_subs encs) (map e_data encs) = Ok samples /\
    map (@length N) (map e_data encs) = map (@length N) samples.
  Proof.
    intros Hiv Hok Henc. destruct sch; [| |discriminate].
    - split; [apply (samples_roundtrip_cenc E D protfunc key iv)|apply (encrypt_samples_cenc_lengths E protfunc key iv)];
        assumption.
    - destruct Hok as (Hok & -> & Hfit).
      split; [apply (samples_roundtrip_cbcs E D protfunc)|apply (encrypt_samples_cbcs_lengths E D protfunc key iv cb sb)];
        assumption.
  Qed.
End Scheme.
