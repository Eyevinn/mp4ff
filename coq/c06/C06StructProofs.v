(* C06StructProofs.v — DecryptFragment's box surgery undoes EncryptFragment's, offsets included. *)
From V.lib Require Import Base.
From V.c06 Require Import C06Lib C06Model.

Definition is_prot_kind (k : tkind) : bool :=
  match k with TSaiz | TSaio | TSenc | TUuidSenc => true | _ => false end.

(* a clear traf: no protection boxes; uuid boxes that are not senc (tfxd, tfrf, ...) are allowed *)
Definition clean_traf (ch : list tbox) : bool := forallb (fun b => negb (is_prot_kind (tk b))) ch.

(* the repaired text keeps every box that is not saiz / saio / senc / uuid-senc, in order, and counts exactly the
   sizes of the others *)
Lemma reb_eq ch :
  remove_encryption_boxes ch
  = (filter (fun b => negb (is_prot_kind (tk b))) ch, sumN (map tsize (filter (fun b => is_prot_kind (tk b)) ch))).
Proof.
  induction ch as [|b t IH]; [reflexivity|].
  cbn [remove_encryption_boxes filter]. rewrite IH. destruct (tk b); reflexivity.
Qed.

Lemma reb_size ch :
  sumN (map tsize (fst (remove_encryption_boxes ch))) + snd (remove_encryption_boxes ch) = sumN (map tsize ch).
Proof. rewrite reb_eq. apply (filter_split_sum (fun b => is_prot_kind (tk b))). Qed.

Lemma reb_clean ch : clean_traf ch = true -> remove_encryption_boxes ch = (ch, 0).
Proof.
  intros H. destruct (filter_none (fun b => is_prot_kind (tk b)) ch H) as [H1 H2]. rewrite reb_eq, H1, H2. reflexivity.
Qed.

(* exactly the three boxes EncryptFragment appended are removed, and their sizes counted *)
Lemma reb_encrypted ch saiz_sz senc_sz ids :
  clean_traf ch = true ->
  remove_encryption_boxes (ch ++ [mkT TSaiz saiz_sz ids; mkT TSaio 20 (ids + 1); mkT TSenc senc_sz (ids + 2)])
  = (ch, saiz_sz + 20 + senc_sz).
Proof.
  intros H. destruct (filter_none (fun b => is_prot_kind (tk b)) ch H) as [H1 H2].
  rewrite reb_eq, !filter_app, H1, H2. cbn [filter tk is_prot_kind negb map tsize sumN app].
  rewrite app_nil_r. f_equal. lia.
Qed.

(* moof children of a clear single-traf fragment: one traf, clean; no pssh *)
Fixpoint clean_moof (cs : list mchild) : bool :=
  match cs with
  | [] => true
  | MTraf ch :: t => clean_traf ch && clean_moof t
  | MPssh _ _ :: _ => false
  | MOther _ _ :: t => clean_moof t
  end.

Fixpoint nr_trafs (cs : list mchild) : nat :=
  match cs with [] => 0 | MTraf _ :: t => S (nr_trafs t) | _ :: t => nr_trafs t end.

Lemma strip_clean cs : clean_moof cs = true -> strip_trafs cs = (cs, 0).
Proof.
  induction cs as [|c t IH]; intros H; [reflexivity|].
  destruct c as [ch|s i|s i]; cbn [clean_moof] in H; [|discriminate|].
  - apply andb_true_iff in H. destruct H as [H1 H2]. cbn [strip_trafs].
    rewrite (reb_clean ch H1), (IH H2). reflexivity.
  - cbn [strip_trafs]. rewrite (IH H). reflexivity.
Qed.

Lemma strip_encrypted cs saiz_sz senc_sz ids :
  clean_moof cs = true -> nr_trafs cs = 1%nat ->
  strip_trafs (add_enc_boxes cs saiz_sz senc_sz ids) = (cs, saiz_sz + 20 + senc_sz).
Proof.
  induction cs as [|c t IH]; intros H Hn; [discriminate|].
  destruct c as [ch|s i|s i]; cbn [clean_moof] in H; [|discriminate|].
  - apply andb_true_iff in H. destruct H as [H1 H2].
    cbn [add_enc_boxes strip_trafs]. rewrite (reb_encrypted ch _ _ _ H1), (strip_clean t H2). f_equal. lia.
  - cbn [nr_trafs] in Hn. cbn [add_enc_boxes strip_trafs]. rewrite (IH H Hn). reflexivity.
Qed.

Lemma no_pssh_clean cs : clean_moof cs = true -> existsb is_pssh cs = false.
Proof.
  induction cs as [|c t IH]; intros H; [reflexivity|].
  destruct c as [ch|s i|s i]; cbn [clean_moof] in H; [|discriminate|]; cbn [existsb is_pssh orb].
  - apply andb_true_iff in H. apply IH. apply H.
  - apply IH. exact H.
Qed.

Lemma moof_size_encrypted cs saiz_sz senc_sz ids :
  nr_trafs cs = 1%nat ->
  moof_size (add_enc_boxes cs saiz_sz senc_sz ids) = moof_size cs + (saiz_sz + 20 + senc_sz).
Proof.
  unfold moof_size. induction cs as [|c t IH]; intros Hn; [discriminate|].
  destruct c as [ch|s i|s i]; cbn [add_enc_boxes map sumN mchild_size nr_trafs] in *.
  - unfold traf_size. rewrite map_app, sumN_app. cbn [map sumN tsize]. lia.
  - specialize (IH Hn). lia.
  - specialize (IH Hn). lia.
Qed.

(* structural round trip: encrypt, encode+decode at `start`, decrypt == encode+decode of the clear fragment:
   same children in the same order (uuid/unknown boxes included), data offset and mdat position those of the
   clear layout, i.e. still pointing at the sample bytes *)
Lemma fragment_struct_roundtrip start cs mdat_hdr saiz_sz senc_sz ids :
  clean_moof cs = true -> nr_trafs cs = 1%nat ->
  decrypt_frag_struct (layout start (add_enc_boxes cs saiz_sz senc_sz ids) mdat_hdr)
  = Ok (layout start cs mdat_hdr).
Proof.
  intros Hc Hn. unfold decrypt_frag_struct, layout. cbn [f_children f_data_offset f_mdat_start f_moof_start].
  rewrite (strip_encrypted cs _ _ _ Hc Hn).
  unfold remove_psshs. rewrite (no_pssh_clean cs Hc).
  rewrite (moof_size_encrypted cs _ _ _ Hn).
  set (r := saiz_sz + 20 + senc_sz). set (m := moof_size cs).
  assert (Hm : 8 <= m) by (unfold m, moof_size; lia).
  assert (E1 : (m + r + mdat_hdr <? r + 0) = false) by (apply N.ltb_ge; lia).
  assert (E2 : (start <? start + (m + r)) = true) by (apply N.ltb_lt; lia).
  rewrite E1, E2. f_equal. f_equal; lia.
Qed.

(* the defect of the pinned text: a traf {tfhd, tfxd-uuid} loses its uuid box, no byte is counted *)
Lemma uuid_dropped_pinned :
  remove_encryption_boxes_pinned [mkT TOther 16 1; mkT TUuidOther 44 2] = ([mkT TOther 16 1], 0).
Proof. reflexivity. Qed.

(* ---------------------------------------------------------------- any decodable encrypted fragment *)
Lemma strip_size cs :
  sumN (map mchild_size (fst (strip_trafs cs))) + snd (strip_trafs cs) = sumN (map mchild_size cs).
Proof.
  induction cs as [|c t IH]; [reflexivity|].
  destruct c as [ch|s i|s i]; cbn [strip_trafs].
  - pose proof (reb_size ch) as Hr. destruct (remove_encryption_boxes ch) as [ch' n].
    destruct (strip_trafs t) as [r m]. cbn [fst snd map sumN mchild_size] in *. unfold traf_size. lia.
  - destruct (strip_trafs t) as [r m]. cbn [fst snd map sumN mchild_size] in *. lia.
  - destruct (strip_trafs t) as [r m]. cbn [fst snd map sumN mchild_size] in *. lia.
Qed.

Lemma psshs_size cs :
  sumN (map mchild_size (fst (remove_psshs cs))) + snd (remove_psshs cs) = sumN (map mchild_size cs).
Proof.
  unfold remove_psshs. destruct (existsb is_pssh cs); cbn [fst snd]; [apply filter_split_sum|lia].
Qed.

(* for ANY fragment (third-party content included): when DecryptFragment's surgery succeeds, the trun data offset
   and the mdat position move by exactly the number of bytes the moof shrinks, so the offset still designates the
   same mdat bytes; nothing else of the fragment is touched by the surgery *)
Lemma decrypt_struct_general f g :
  decrypt_frag_struct f = Ok g ->
  f_moof_start g = f_moof_start f /\
  moof_size (f_children g) + (f_data_offset f - f_data_offset g) = moof_size (f_children f) /\
  f_data_offset g <= f_data_offset f /\
  (f_moof_start f < f_mdat_start f ->
   f_mdat_start g + (f_data_offset f - f_data_offset g) = f_mdat_start f \/ f_mdat_start f < f_data_offset f - f_data_offset g).
Proof.
  unfold decrypt_frag_struct.
  pose proof (strip_size (f_children f)) as H1.
  destruct (strip_trafs (f_children f)) as [cs1 n1]. cbn [fst snd] in H1.
  pose proof (psshs_size cs1) as H2.
  destruct (remove_psshs cs1) as [cs2 n2]. cbn [fst snd] in H2.
  destruct (f_data_offset f <? n1 + n2) eqn:E; [discriminate|]. apply N.ltb_ge in E.
  intros H. injection H as <-. cbn [f_moof_start f_children f_data_offset f_mdat_start].
  unfold moof_size. split; [reflexivity|]. split; [lia|]. split; [lia|].
  intros Hlt. apply N.ltb_lt in Hlt. rewrite Hlt. lia.
Qed.

(* ---------------------------------------------------------------- protection signalling vs everything else *)
(* is_protection_box looks at the grouping type of sbgp / sgpd.  What RemoveEncryptionBoxes removes is protection
   signalling (removed kinds are a subset), so every box that is NOT protection signalling - sample groups roll / rap
   / sync / alst / ..., subs, tfxd / tfrf, unknown boxes - is kept, in order, unchanged *)
Lemma prot_kind_is_protection k : is_prot_kind k = true -> is_protection_box k = true.
Proof. destruct k; try discriminate; reflexivity. Qed.

Lemma filter_filter_sub {A} (f g : A -> bool) l :
  (forall x, f x = true -> g x = true) -> filter f (filter g l) = filter f l.
Proof.
  intros H. induction l as [|x t IH]; [reflexivity|]. cbn [filter].
  destruct (g x) eqn:Eg; cbn [filter]; [rewrite IH; reflexivity|].
  destruct (f x) eqn:Ef; [rewrite (H x Ef) in Eg; discriminate|exact IH].
Qed.

Lemma reb_keeps_nonprotection ch :
  filter (fun b => negb (is_protection_box (tk b))) (fst (remove_encryption_boxes ch))
  = filter (fun b => negb (is_protection_box (tk b))) ch /\
  (forall b, In b ch -> is_protection_box (tk b) = false -> In b (fst (remove_encryption_boxes ch))) /\
  (forall b, In b (fst (remove_encryption_boxes ch)) -> In b ch) /\
  sumN (map tsize (fst (remove_encryption_boxes ch))) + snd (remove_encryption_boxes ch) = sumN (map tsize ch).
Proof.
  assert (H1 : fst (remove_encryption_boxes ch) = filter (fun b => negb (is_prot_kind (tk b))) ch) by (rewrite reb_eq; reflexivity).
  rewrite H1. split; [|split; [|split]].
  - apply filter_filter_sub. intros b Hb. destruct (is_prot_kind (tk b)) eqn:E; [|reflexivity].
    rewrite (prot_kind_is_protection _ E) in Hb. discriminate.
  - intros b Hin Hb. apply filter_In. split; [exact Hin|].
    destruct (is_prot_kind (tk b)) eqn:E; [|reflexivity]. rewrite (prot_kind_is_protection _ E) in Hb. discriminate.
  - intros b Hin. apply filter_In in Hin. apply Hin.
  - rewrite <- H1. apply reb_size.
Qed.

(* the variant that removes every sbgp / sgpd whatever the grouping type drops a box that is not protection
   signalling: traf {tfhd, trun, sbgp(roll), sgpd(roll)} *)
Definition cc_roll : N := 1919904876.
Lemma drop_all_groups_refuted :
  let ch := [mkT TOther 16 1; mkT TTrun 32 2; mkT (TSbgp cc_roll) 28 3; mkT (TSgpd cc_roll) 26 4] in
  filter (fun b => negb (is_protection_box (tk b))) (fst (remove_encryption_boxes_allgroups ch))
  <> filter (fun b => negb (is_protection_box (tk b))) ch /\
  fst (remove_encryption_boxes ch) = ch.
Proof. split; [vm_compute; discriminate|reflexivity]. Qed.
