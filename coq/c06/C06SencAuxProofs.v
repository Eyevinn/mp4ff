(* C06SencAuxProofs.v — what EncryptFragment's per-sample loop leaves in the SencBox / SaizBox (pinned text of
   SencBox.AddSample) when every sample has a sub-sample map or none has, that the saiz sizes describe the senc
   entries one by one, and that the saio offset addresses the first entry in the encoded moof. *)
From V.lib Require Import Base.
From V.c07 Require Import C07Model C07AuxProofs.
From V.c06 Require Import C06Lib C06Model C06SencModel C06SencProofs.

Definition nonempty {A} (l : list A) : bool := match l with [] => false | _ => true end.

(* all samples of the fragment carry an IV of ivsz bytes (16 for cenc, 0 for cbcs) and either all have a sub-sample
   map (video: sub = true) or none has (audio: sub = false) *)
Definition uniform (ivsz : N) (sub : bool) (encs : list enc_sample) : bool :=
  forallb (fun e => (lenN (e_iv e) =? ivsz) && Bool.eqb (nonempty (e_ssps e)) sub) encs.

Lemma uniform_Forall ivsz sub encs :
  uniform ivsz sub encs = true -> Forall (fun e => lenN (e_iv e) = ivsz /\ nonempty (e_ssps e) = sub) encs.
Proof.
  unfold uniform. rewrite forallb_forall, Forall_forall. intros H e He. specialize (H e He).
  apply andb_true_iff in H. destruct H as [H1 H2]. split; [apply N.eqb_eq; exact H1|apply eqb_prop; exact H2].
Qed.

(* ---------------------------------------------------------------- senc *)
(* the SencBox at the end of the loop *)
Definition senc_after (ivsz : N) (sub : bool) (encs : list enc_sample) : senc :=
  mkSenc (match encs with [] => 0 | _ => ivsz end) (sub && nonempty encs) (lenN encs)
         (if ivsz =? 0 then [] else map e_iv encs) (if sub then map e_ssps encs else []).

Lemma senc_add_step ivsz sub done e :
  ivsz < 256 -> lenN (e_iv e) = ivsz /\ nonempty (e_ssps e) = sub ->
  senc_add (senc_after ivsz sub done) (e_iv e) (e_ssps e) = Ok (senc_after ivsz sub (done ++ [e])).
Proof.
  intros Hlt [Hiv Hsub]. subst sub. unfold senc_add, senc_after. cbn [sn_ivsize sn_subs sn_count sn_ivs sn_ss].
  rewrite Hiv, !map_app, lenN_app. cbn [map]. change (lenN [e]) with 1.
  replace (nonempty (done ++ [e])) with true by (destruct done; reflexivity).
  replace (match done ++ [e] with [] => 0 | _ => ivsz end) with ivsz by (destruct done; reflexivity).
  rewrite andb_true_r.
  (* the IV part: none stored and the size stays 0; or the first IV sets the size; or a later one has it *)
  destruct (ivsz =? 0) eqn:Ez; cbn [negb]; [apply N.eqb_eq in Ez|destruct done as [|d t]].
  1: replace (match done with [] => 0 | _ => ivsz end) with ivsz by (destruct done; congruence).
  2: change (lenN (@nil enc_sample) =? 0) with true; cbv iota; unfold u8; rewrite N.mod_small by exact Hlt.
  3: change (lenN (d :: t) =? 0) with false; rewrite N.eqb_refl; cbn [negb].
  (* the sub-sample part *)
  all: destruct (e_ssps e); cbn [rbind nonempty andb app sn_ivsize sn_subs sn_count sn_ivs sn_ss]; rewrite ?app_nil_r;
    reflexivity.
Qed.

Lemma senc_of_spec ivsz sub encs :
  ivsz < 256 -> uniform ivsz sub encs = true -> senc_of senc_empty encs = Ok (senc_after ivsz sub encs).
Proof.
  intros Hlt Hu.
  replace senc_empty with (senc_after ivsz sub []) by (unfold senc_after; destruct (ivsz =? 0), sub; reflexivity).
  apply (fold_after (fun s e => senc_add s (e_iv e) (e_ssps e)) senc_of (senc_after ivsz sub) _
                    (fun _ => eq_refl) (fun _ _ _ => eq_refl) (fun done e => senc_add_step ivsz sub done e Hlt)
                    encs [] (uniform_Forall _ _ _ Hu)).
Qed.

(* ---------------------------------------------------------------- saiz *)
(* the SaizBox at the end of the loop: one size byte per sample when there are sub-sample maps, a default size when
   there are only IVs, nothing at all when there is neither *)
Definition saiz_after (ivsz : N) (sub : bool) (encs : list enc_sample) : saiz :=
  if sub then mkSaiz (map (fun e => u8 (ivsz + 2 + lenN (e_ssps e) * 6)) encs) 0 (lenN encs)
  else if 0 <? ivsz then mkSaiz [] (match encs with [] => 0 | _ => ivsz end) (lenN encs)
  else saiz_empty.

Lemma saiz_add_step ivsz sub done e :
  ivsz < 256 -> lenN (e_iv e) = ivsz /\ nonempty (e_ssps e) = sub ->
  saiz_add (saiz_after ivsz sub done) (e_iv e) (e_ssps e) = Ok (saiz_after ivsz sub (done ++ [e])).
Proof.
  intros Hlt [Hiv Hsub]. subst sub. unfold saiz_add, saiz_after. rewrite Hiv, map_app, lenN_app. change (lenN [e]) with 1.
  destruct (e_ssps e) eqn:Es; cbn [nonempty sz_info sz_default sz_count map]; [|rewrite Es; reflexivity].
  destruct (0 <? ivsz) eqn:Ep; [|reflexivity]. cbn [sz_info sz_default sz_count].
  assert (Hu8 : u8 ivsz = ivsz) by (unfold u8; apply N.mod_small; exact Hlt). rewrite Hu8.
  destruct done as [|d t]; [reflexivity|]. cbn [app].
  replace (ivsz =? 0) with false by (symmetry; apply N.eqb_neq; apply N.ltb_lt in Ep; lia).
  rewrite N.eqb_refl. reflexivity.
Qed.

Lemma saiz_of_spec ivsz sub encs :
  ivsz < 256 -> uniform ivsz sub encs = true -> saiz_of saiz_empty encs = Ok (saiz_after ivsz sub encs).
Proof.
  intros Hlt Hu.
  replace saiz_empty with (saiz_after ivsz sub []) by (unfold saiz_after; destruct sub, (0 <? ivsz); reflexivity).
  apply (fold_after (fun z e => saiz_add z (e_iv e) (e_ssps e)) saiz_of (saiz_after ivsz sub) _
                    (fun _ => eq_refl) (fun _ _ _ => eq_refl) (fun done e => saiz_add_step ivsz sub done e Hlt)
                    encs [] (uniform_Forall _ _ _ Hu)).
Qed.

(* the entries the senc box carries, one per sample *)
Definition entries_of (ivsz : N) (sub : bool) (encs : list enc_sample) : list (list N) :=
  map (fun e => (if 0 <? ivsz then e_iv e else []) ++ (if sub then sub_bytes (e_ssps e) else [])) encs.

Lemma zip_entries_map hasiv sub : forall encs,
  zip_entries hasiv sub (length encs) (map e_iv encs) (map e_ssps encs)
  = map (fun e => (if hasiv then e_iv e else []) ++ (if sub then sub_bytes (e_ssps e) else [])) encs.
Proof. induction encs as [|e t IH]; [reflexivity|]. cbn [length zip_entries map hd tl]. rewrite IH. reflexivity. Qed.

(* saiz describes the senc entries: same number of samples, and each recorded size is the byte length of the
   corresponding entry, as long as that length fits the 8-bit field (C07-F1 is the recorded finding beyond) *)
Lemma aux_consistent ivsz sub encs z :
  (ivsz = 0 \/ ivsz = 8 \/ ivsz = 16) -> uniform ivsz sub encs = true ->
  forallb (fun e => lenN e <? 256) (entries_of ivsz sub encs) = true ->
  saiz_of saiz_empty encs = Ok z ->
  if sub || (0 <? ivsz) then
    saiz_sizes z = map (fun e => lenN e) (entries_of ivsz sub encs) /\ sz_count z = lenN encs
  else
    saiz_sizes z = [] /\ sz_count z = 0 /\ concat (entries_of ivsz sub encs) = [].
Proof.
  intros Hsz Hu Hsmall Hz. assert (Hlt : ivsz < 256) by (destruct Hsz as [-> | [-> | ->]]; lia).
  rewrite (saiz_of_spec ivsz sub encs Hlt Hu) in Hz. injection Hz as <-.
  pose proof (uniform_Forall _ _ _ Hu) as HF. rewrite Forall_forall in HF.
  unfold entries_of in *. rewrite forallb_map, forallb_forall in Hsmall. rewrite map_map.
  unfold saiz_after, saiz_sizes. destruct sub; cbn [orb]; [|destruct (0 <? ivsz) eqn:Ep].
  - (* a size byte per sample: the entry is below 256 bytes, so u8 keeps its length *)
    cbn [sz_info sz_default sz_count N.eqb]. split; [|reflexivity].
    apply map_ext_in. intros e He. specialize (Hsmall e He). apply N.ltb_lt in Hsmall.
    rewrite lenN_app, sub_bytes_len in *. destruct (HF e He) as [Hiv _].
    replace (lenN (if 0 <? ivsz then e_iv e else [])) with ivsz in *
      by (destruct (0 <? ivsz) eqn:Ep; [congruence|apply N.ltb_ge in Ep; change (lenN (@nil N)) with 0; lia]).
    unfold u8. rewrite N.mod_small; lia.
  - (* the default size is the IV size, which is the whole entry *)
    cbn [sz_info sz_default sz_count]. split; [|reflexivity]. destruct encs as [|e0 t]; [reflexivity|].
    replace (ivsz =? 0) with false by (symmetry; apply N.eqb_neq; apply N.ltb_lt in Ep; lia).
    unfold lenN at 1. rewrite Nat2N.id. symmetry. apply map_all_same.
    intros e He. rewrite app_nil_r. apply (HF e He).
  - split; [reflexivity|]. split; [reflexivity|].
    clear. induction encs as [|e t IH]; [reflexivity|]. cbn [map concat app]. exact IH.
Qed.

(* ---------------------------------------------------------------- saio *)
(* the encoded moof, byte for byte: moof header, the boxes before the traf, traf header, the traf's boxes before
   senc (saiz and saio among them), the senc box, whatever follows.  The offset EncryptFragment stores in saio
   (C07 saio_offset over the box sizes) addresses the first per-sample entry, and ParseReadSenc's comparison with
   the senc box position holds *)
Lemma saio_points_at_entries moof_hdr traf_hdr (before pre : list (list N)) post senc_hdr16 entries tail :
  length moof_hdr = 8%nat -> length traf_hdr = 8%nat -> length senc_hdr16 = 16%nat ->
  forallb (fun x : bool * N => negb (fst x)) post = true ->
  let off := saio_offset (map (fun b => lenN b) before)
                         (map (fun b => (false, lenN b)) pre ++ (true, lenN (senc_hdr16 ++ entries)) :: post) in
  let moof := moof_hdr ++ concat before ++ traf_hdr ++ concat pre ++ (senc_hdr16 ++ entries) ++ tail in
  skipn (N.to_nat off) moof = entries ++ tail /\
  off = lenN (moof_hdr ++ concat before ++ traf_hdr ++ concat pre) + 16.
Proof.
  intros Lm Lt Ls Hpost off moof.
  assert (Hoff : off = 8 + sumN (map (fun b => lenN b) before) + 8 + sumN (map snd (map (fun b => (false, lenN b)) pre)) + 16).
  { unfold off. apply saio_offset_spec; [|exact Hpost]. clear. induction pre; [reflexivity|]. cbn [map forallb fst negb andb]. assumption. }
  rewrite map_map in Hoff. cbn [snd] in Hoff. rewrite <- !lenN_concat in Hoff.
  assert (Hlen : off = lenN (moof_hdr ++ concat before ++ traf_hdr ++ concat pre) + 16).
  { rewrite !lenN_app. unfold lenN at 1 3. rewrite Lm, Lt. rewrite Hoff. lia. }
  split; [|exact Hlen].
  unfold moof. replace (moof_hdr ++ concat before ++ traf_hdr ++ concat pre ++ (senc_hdr16 ++ entries) ++ tail)
    with ((moof_hdr ++ concat before ++ traf_hdr ++ concat pre) ++ senc_hdr16 ++ entries ++ tail)
    by (rewrite <- !app_assoc; reflexivity).
  rewrite Hlen. unfold lenN. rewrite N2Nat.inj_add, Nat2N.id.
  rewrite skipn_add, skipn_app_exact by reflexivity. change (N.to_nat 16) with 16%nat.
  apply skipn_app_exact. symmetry. exact Ls.
Qed.

(* ---------------------------------------------------------------- the loops of EncryptFragment are uniform *)
Section Loops.
  Variable E : list N -> list N -> list N.
  Variable D : list N -> list N -> list N.
  Variable protfunc : list N -> res (list ssp).

  (* sub = true: ProtFunc gives every sample of the fragment a non-empty map (video); false: none (audio) *)
  Definition prot_uniform (sub : bool) (samples : list (list N)) : Prop :=
    forall s ssps, In s samples -> protfunc s = Ok ssps -> nonempty ssps = sub.
  Definition prot_in_range (samples : list (list N)) : Prop :=
    forall s ssps, In s samples -> protfunc s = Ok ssps -> subs_ok ssps = true.

  Lemma cenc_loop_uniform sub : forall samples key iv encs,
    length iv = 16%nat -> prot_uniform sub samples ->
    encrypt_samples_cenc E protfunc key iv samples = Ok encs ->
    uniform 16 sub encs = true /\ length encs = length samples.
  Proof.
    intros samples key iv encs Hl Hu H. pose proof (encrypt_samples_cenc_stored E protfunc key samples iv encs Hl H) as HR.
    split; [|symmetry; exact (Forall2_len _ _ _ HR)].
    apply (Forall2_forallb _ _ _ _ HR). intros s e Hin (Hp & _ & H16).
    rewrite (Hu s _ Hin Hp), eqb_reflx. unfold lenN. rewrite H16. reflexivity.
  Qed.

  Lemma cbcs_loop_uniform sub : forall samples key iv cb sb encs,
    prot_uniform sub samples ->
    encrypt_samples_cbcs E D protfunc key iv cb sb samples = Ok encs ->
    uniform 0 sub encs = true /\ length encs = length samples.
  Proof.
    intros samples key iv cb sb encs Hu H. pose proof (encrypt_samples_cbcs_stored E D protfunc key iv cb sb samples encs H) as HR.
    split; [|symmetry; exact (Forall2_len _ _ _ HR)].
    apply (Forall2_forallb _ _ _ _ HR). intros s e Hin (Hp & _ & ->). rewrite (Hu s _ Hin Hp), eqb_reflx. reflexivity.
  Qed.

  (* and keep the maps of a protection function whose maps fit the field widths *)
  Lemma stored_in_range (R : list N -> enc_sample -> Prop) samples encs :
    prot_in_range samples -> Forall2 R samples encs -> (forall s e, R s e -> protfunc s = Ok (e_ssps e)) ->
    forallb subs_ok (map e_ssps encs) = true.
  Proof.
    intros Hr HR Hp. rewrite forallb_map. apply (Forall2_forallb _ _ _ _ HR).
    intros s e Hin Hs. exact (Hr s _ Hin (Hp s e Hs)).
  Qed.
End Loops.

(* a fragment mixing samples with and without a sub-sample map (a video sample without any NAL unit next to a
   normal one) is outside `uniform`: AddSample stores one table for two samples, and Encode indexes out of range *)
Lemma mixed_subsamples_refuted :
  let encs := [mkEnc (repeat 1 16) [] []; mkEnc (repeat 2 16) [mkSsp 5 16] []] in
  exists s, senc_of senc_empty encs = Ok s /\ sn_count s = 2 /\ length (sn_ss s) = 1%nat /\ senc_encode s = Panic.
Proof. eexists. split; [vm_compute; reflexivity|]. repeat split. Qed.
