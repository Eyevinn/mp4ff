(* C06Lib.v — what the proof files of this directory share: inversion of the result monad, cuts of an append at the
   seam, relations carried along two lists, loops whose state has a closed form, the two per-sample loops of
   EncryptFragment as relations between the clear samples and what was stored for them, and what the decoder hands
   over from a stored senc. *)
From V.lib Require Import Base.
From V.c07 Require Import C07Model C07IvProofs.
From V.c06 Require Import C06Model.

(* ---------------------------------------------------------------- the result monad *)
Lemma Ok_inj {A} (x y : A) : Ok x = Ok y -> x = y.
Proof. intros H. injection H. auto. Qed.

Lemma rbind_Ok {A B} (r : res A) (f : A -> res B) b : rbind r f = Ok b -> exists a, r = Ok a /\ f a = Ok b.
Proof. destruct r as [a| | |]; try discriminate. intros H. exists a. split; [reflexivity|exact H]. Qed.

(* ---------------------------------------------------------------- lists *)
Lemma firstn_app_exact {A} (a b : list A) n : n = length a -> firstn n (a ++ b) = a.
Proof. intros ->. rewrite firstn_app, firstn_all, Nat.sub_diag. cbn. apply app_nil_r. Qed.

Lemma skipn_app_exact {A} (a b : list A) n : n = length a -> skipn n (a ++ b) = b.
Proof. intros ->. rewrite skipn_app, skipn_all, Nat.sub_diag. reflexivity. Qed.

Lemma skipn_add {A} (l : list A) a b : skipn (a + b) l = skipn b (skipn a l).
Proof.
  revert l. induction a as [|a IH]; intros l; [reflexivity|].
  destruct l as [|x t]; [cbn; destruct b; reflexivity|]. cbn [Nat.add skipn]. apply IH.
Qed.

Lemma lenN_eq {A B} (a : list A) (b : list B) : length a = length b -> lenN a = lenN b.
Proof. intros H. unfold lenN. rewrite H. reflexivity. Qed.

(* a filter and its complement share out any measure of the elements *)
Lemma filter_split_sum {A} (f : A -> bool) (g : A -> N) l :
  sumN (map g (filter (fun x => negb (f x)) l)) + sumN (map g (filter f l)) = sumN (map g l).
Proof. induction l as [|x t IH]; [reflexivity|]. cbn [filter]. destruct (f x); cbn [negb map sumN]; lia. Qed.

Lemma filter_none {A} (f : A -> bool) l :
  forallb (fun x => negb (f x)) l = true -> filter (fun x => negb (f x)) l = l /\ filter f l = [].
Proof.
  induction l as [|x t IH]; intros H; [split; reflexivity|].
  cbn [forallb] in H. apply andb_true_iff in H. destruct H as [Hx Ht]. destruct (IH Ht) as [I1 I2].
  cbn [filter]. rewrite Hx, I1. apply negb_true_iff in Hx. rewrite Hx, I2. split; reflexivity.
Qed.

Lemma existsb_none {A} (f : A -> bool) l : existsb f l = false -> forallb (fun x => negb (f x)) l = true.
Proof.
  induction l as [|x t IH]; intros H; [reflexivity|].
  cbn [existsb] in H. apply orb_false_iff in H. cbn [forallb]. rewrite (proj1 H), (IH (proj2 H)). reflexivity.
Qed.

Lemma map_all_same {A B} (f : A -> B) c l : (forall x, In x l -> f x = c) -> map f l = repeat c (length l).
Proof.
  induction l as [|x t IH]; intros H; [reflexivity|]. cbn [map length repeat].
  rewrite (H x (or_introl eq_refl)), IH; [reflexivity|]. intros y Hy. apply H. right. exact Hy.
Qed.

Lemma forallb_map {A B} (f : A -> B) (p : B -> bool) l : forallb p (map f l) = forallb (fun x => p (f x)) l.
Proof. induction l as [|x t IH]; [reflexivity|]. cbn [map forallb]. rewrite IH. reflexivity. Qed.

Section Forall2.
  Context {A B : Type} (R : A -> B -> Prop).

  Lemma Forall2_map_eq {C} (f : A -> C) (g : B -> C) l l' :
    Forall2 R l l' -> (forall a b, R a b -> f a = g b) -> map f l = map g l'.
  Proof. intros H Hfg. induction H as [|a b l l' Hab _ IH]; [reflexivity|]. cbn [map]. rewrite (Hfg a b Hab), IH. reflexivity. Qed.

  Lemma Forall2_forallb (p : B -> bool) l l' :
    Forall2 R l l' -> (forall a b, In a l -> R a b -> p b = true) -> forallb p l' = true.
  Proof.
    intros H Hp. induction H as [|a b l l' Hab _ IH]; [reflexivity|].
    cbn [forallb]. rewrite (Hp a b (or_introl eq_refl) Hab), IH; [reflexivity|].
    intros a' b' Hin. apply Hp. right. exact Hin.
  Qed.

  Lemma Forall2_len l l' : Forall2 R l l' -> length l = length l'.
  Proof. intros H. induction H as [|a b l l' _ _ IH]; [reflexivity|]. cbn [length]. rewrite IH. reflexivity. Qed.

  Lemma Forall2_impl_In (R' : A -> B -> Prop) l l' :
    Forall2 R l l' -> (forall a b, In a l -> R a b -> R' a b) -> Forall2 R' l l'.
  Proof.
    intros H Hi. induction H as [|a b l l' Hab _ IH]; constructor.
    - apply Hi; [left; reflexivity|exact Hab].
    - apply IH. intros a' b' Hin. apply Hi. right. exact Hin.
  Qed.
End Forall2.

(* a loop that feeds the elements of a list to `add`, when the state after the elements `done` has a closed form
   `after done` that every admissible element extends *)
Section Fold.
  Context {S X : Type} (add : S -> X -> res S) (F : S -> list X -> res S) (after : list X -> S) (P : X -> Prop).
  Hypothesis F_nil : forall s, F s [] = Ok s.
  Hypothesis F_cons : forall s x t, F s (x :: t) = rbind (add s x) (fun s' => F s' t).
  Hypothesis step : forall done x, P x -> add (after done) x = Ok (after (done ++ [x])).

  Lemma fold_after : forall rest done, Forall P rest -> F (after done) rest = Ok (after (done ++ rest)).
  Proof.
    induction rest as [|x t IH]; intros done H; [rewrite app_nil_r; apply F_nil|].
    inversion H as [|? ? Hx Ht]; subst. rewrite F_cons, (step done x Hx). cbn [rbind].
    rewrite (IH (done ++ [x]) Ht), <- app_assoc. reflexivity.
  Qed.
End Fold.

(* ---------------------------------------------------------------- the per-sample loops of EncryptFragment *)
Section Loops.
  Variable E D : list N -> list N -> list N.
  Variable protfunc : list N -> res (list ssp).
  Variable key : list N.

  (* cenc: sample s was encrypted under the map of the protection function and the IV stored with it (the running
     IV keeps its 16 bytes) *)
  Definition stored_cenc (s : list N) (e : enc_sample) : Prop :=
    protfunc s = Ok (e_ssps e) /\ crypt_sample_cenc E key (e_iv e) (e_ssps e) s = Ok (e_data e) /\
    length (e_iv e) = 16%nat.

  Lemma encrypt_samples_cenc_stored : forall samples iv encs,
    length iv = 16%nat -> encrypt_samples_cenc E protfunc key iv samples = Ok encs ->
    Forall2 stored_cenc samples encs.
  Proof.
    induction samples as [|s t IH]; intros iv encs Hl H; cbn [encrypt_samples_cenc] in H.
    - injection H as <-. constructor.
    - apply rbind_Ok in H as (ssps & Ep & H). apply rbind_Ok in H as (c & Ec & H). apply rbind_Ok in H as (r & Er & H).
      injection H as <-. constructor; [repeat split; assumption|].
      apply (IH _ _ ltac:(unfold increment_iv; rewrite increment_iv_inplace_length; exact Hl) Er).
  Qed.

  (* cbcs: the same IV for every sample, none stored *)
  Definition stored_cbcs (iv : list N) (cb sb : N) (s : list N) (e : enc_sample) : Prop :=
    protfunc s = Ok (e_ssps e) /\ crypt_sample_cbcs E D false key iv (e_ssps e) cb sb s = Ok (e_data e) /\
    e_iv e = [].

  Lemma encrypt_samples_cbcs_stored iv cb sb : forall samples encs,
    encrypt_samples_cbcs E D protfunc key iv cb sb samples = Ok encs ->
    Forall2 (stored_cbcs iv cb sb) samples encs.
  Proof.
    induction samples as [|s t IH]; intros encs H; cbn [encrypt_samples_cbcs] in H.
    - injection H as <-. constructor.
    - apply rbind_Ok in H as (ssps & Ep & H). apply rbind_Ok in H as (c & Ec & H). apply rbind_Ok in H as (r & Er & H).
      injection H as <-. constructor; [repeat split; assumption|exact (IH r Er)].
  Qed.
End Loops.

(* ---------------------------------------------------------------- what the decoder hands over *)
(* per-sample IVs exist exactly when the (common) IV size is not zero *)
Lemma decoded_ivs_sized ivsz encs :
  forallb (fun e => lenN (e_iv e) =? ivsz) encs = true ->
  decoded_ivs encs = if ivsz =? 0 then [] else map e_iv encs.
Proof.
  intros Hs. unfold decoded_ivs. destruct encs as [|e t]; [destruct (ivsz =? 0); reflexivity|].
  destruct (ivsz =? 0) eqn:Ez.
  - apply N.eqb_eq in Ez. subst ivsz.
    assert (H : existsb (fun e => negb (lenN (e_iv e) =? 0)) (e :: t) = false); [|rewrite H; reflexivity].
    induction (e :: t) as [|x l IH]; [reflexivity|]. cbn [forallb] in Hs. apply andb_true_iff in Hs.
    cbn [existsb]. rewrite (proj1 Hs). apply IH. apply Hs.
  - cbn [forallb] in Hs. apply andb_true_iff in Hs. destruct Hs as [He _]. apply N.eqb_eq in He.
    cbn [existsb]. rewrite He, Ez. reflexivity.
Qed.
