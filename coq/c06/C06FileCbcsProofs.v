(* C06FileCbcsProofs.v — cbcs: the hypotheses of the round trip for protection functions whose maps lie inside their
   samples (as the trex-parameterised and the whole-file theorems state them). *)
From V.lib Require Import Base.
From V.c07 Require Import C07Model.
From V.c06 Require Import C06SampleProofs.

Lemma in_concat_le (s : list N) : forall samples, In s samples -> lenN s <= lenN (concat samples).
Proof.
  induction samples as [|x t IH]; intros Hin; [destruct Hin|].
  cbn [concat]. rewrite lenN_app. destruct Hin as [-> | Hin]; [lia|]. specialize (IH Hin). lia.
Qed.

Section CbcsLen.
  Variable E : list N -> list N -> list N.
  Variable D : list N -> list N -> list N.
  Hypothesis HE : forall k b, length (E k b) = 16%nat.
  Hypothesis HD : forall k b, length (D k b) = 16%nat.
  Variable protfunc : list N -> res (list ssp).

  (* the maps of the protection function lie inside the sample they were computed for (true for
     Get(AVC|HEVC)ProtectRanges by C07_cbcs_shape and for audio = no map) *)
  Definition prot_inside : Prop :=
    forall s ssps, protfunc s = Ok ssps -> sumN (map (fun p => ss_clear p + ss_prot p) ssps) <= lenN s.

  Hypothesis HDE : forall k b, length b = 16%nat -> D k (E k b) = b.

  Lemma scheme_ok_inside key iv samples :
    key_ok key = true -> prot_inside -> (forall s, In s samples -> lenN s < 4294967296) ->
    scheme_ok E D protfunc Cbcs key iv iv samples.
  Proof.
    intros Hk Hpf Hlen. apply scheme_ok_cbcs; try assumption.
    intros s ssps Hin Hp. split; [exact (Hpf s ssps Hp)|exact (Hlen s Hin)].
  Qed.
End CbcsLen.
