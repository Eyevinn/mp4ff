(* C06InitProofs.v — the sinf InitProtect appends to a sample entry is the one RemoveEncryption reads and removes. *)
From V.lib Require Import Base.
From V.c07 Require Import C07Model.
From V.c06 Require Import C06InitModel.

Definition no_sinf (l : list sechild) : bool := forallb (fun c => negb (is_sinf c)) l.
Definition no_pssh (m : list mvchild) : bool := forallb (fun c => negb (is_mvpssh c)) m.

Lemma last_sinf_app l s acc : last_sinf (l ++ [SESinf s]) acc = Some s.
Proof. revert acc. induction l as [|c t IH]; intros acc; [reflexivity|]. destruct c; cbn; apply IH. Qed.

Lemma remove_first_sinf_app l s : no_sinf l = true -> remove_first_sinf (l ++ [SESinf s]) = l.
Proof.
  induction l as [|c t IH]; intros H; [reflexivity|].
  cbn [no_sinf forallb] in H. apply andb_true_iff in H. destruct H as [Hc Ht].
  cbn [app remove_first_sinf]. destruct (is_sinf c); [discriminate|]. f_equal. apply IH. exact Ht.
Qed.

Lemma remove_last_sinf_app l s : remove_last_sinf (l ++ [SESinf s]) = l.
Proof.
  induction l as [|c t IH]; [reflexivity|].
  cbn [app remove_last_sinf]. rewrite existsb_app. cbn [existsb is_sinf orb]. rewrite orb_true_r.
  cbn [negb]. rewrite andb_false_r. f_equal. exact IH.
Qed.
