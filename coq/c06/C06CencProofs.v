(* C06CencProofs.v — CryptSampleCenc is an involution for EVERY block function E, every key, IV and
   sub-sample map (overlapping or wrapping maps included): only xor algebra is used. *)
From V.lib Require Import Base.
From V.c07 Require Import C07Model.
From V.c06 Require Import C06Lib.

(* ---------------------------------------------------------------- xorl algebra *)
Lemma xorl_cons a b x y : xorl (a :: x) (b :: y) = N.lxor a b :: xorl x y.
Proof. reflexivity. Qed.

Lemma xorl_len a b : length a = length b -> length (xorl a b) = length a.
Proof. intros H. unfold xorl. rewrite map_length, combine_length, <- H. apply Nat.min_id. Qed.

Lemma xorl_app a1 a2 b1 b2 :
  length a1 = length a2 -> xorl (a1 ++ b1) (a2 ++ b2) = xorl a1 a2 ++ xorl b1 b2.
Proof.
  revert a2. induction a1 as [|x t IH]; intros [|y u] H; try discriminate; [reflexivity|].
  cbn [app]. rewrite !xorl_cons, IH by (cbn in H; lia). reflexivity.
Qed.

Lemma xorl_firstn n : forall a b, xorl (firstn n a) (firstn n b) = firstn n (xorl a b).
Proof.
  induction n as [|n IH]; intros a b; [reflexivity|].
  destruct a as [|x t]; [reflexivity|]. destruct b as [|y u]; [cbn; destruct (firstn n t); reflexivity|].
  cbn [firstn]. rewrite !xorl_cons. cbn [firstn]. rewrite IH. reflexivity.
Qed.

Lemma xorl_skipn n : forall a b, length a = length b -> xorl (skipn n a) (skipn n b) = skipn n (xorl a b).
Proof.
  induction n as [|n IH]; intros a b H; [reflexivity|].
  destruct a as [|x t]; destruct b as [|y u]; try discriminate; [reflexivity|].
  cbn [skipn]. rewrite xorl_cons. cbn [skipn]. apply IH. cbn in H. lia.
Qed.

Lemma lxor_cancel a b k : N.lxor (N.lxor a k) (N.lxor b k) = N.lxor a b.
Proof.
  rewrite N.lxor_assoc, (N.lxor_comm b k), <- (N.lxor_assoc k k b), N.lxor_nilpotent, N.lxor_0_l. reflexivity.
Qed.

Lemma xorl_cancel : forall k a b,
  length a = length k -> length b = length k -> xorl (xorl a k) (xorl b k) = xorl a b.
Proof.
  induction k as [|z k IH]; intros [|x a] [|y b] Ha Hb; try discriminate; [reflexivity|].
  rewrite !xorl_cons, lxor_cancel, IH by (cbn in *; lia). reflexivity.
Qed.

Lemma xorl_involutive : forall k a, length a = length k -> xorl (xorl a k) k = a.
Proof.
  induction k as [|z k IH]; intros [|x a] Ha; try discriminate; [reflexivity|].
  rewrite !xorl_cons, IH by (cbn in *; lia).
  rewrite N.lxor_assoc, N.lxor_nilpotent, N.lxor_0_r. reflexivity.
Qed.

(* c xor c2 = s xor c  ->  c2 = s *)
Lemma xorl_solve : forall c c2 s,
  length c2 = length c -> length s = length c -> xorl c c2 = xorl s c -> c2 = s.
Proof.
  induction c as [|z c IH]; intros [|x c2] [|y s] H2 Hs He; try discriminate; [reflexivity|].
  rewrite !xorl_cons in He. inversion He as [[H0 H1]].
  f_equal.
  - rewrite <- (N.lxor_0_l x), <- (N.lxor_nilpotent z), N.lxor_assoc, H0.
    rewrite (N.lxor_comm y z), <- N.lxor_assoc, N.lxor_nilpotent, N.lxor_0_l. reflexivity.
  - apply IH; cbn in *; try lia. exact H1.
Qed.

(* ---------------------------------------------------------------- the stream *)
Section Inv.
  Variable E : list N -> list N -> list N.
  Variable key : list N.

  (* the keystream and the next state depend only on the state and the number of bytes *)
  Lemma xor_stream_ks : forall n st,
    exists ks st', length ks = n /\
                   forall data, length data = n -> xor_stream E key st data = (xorl data ks, st').
  Proof.
    induction n as [|n IH]; intros st.
    - exists [], st. split; [reflexivity|]. intros [|b t] H; [reflexivity|discriminate].
    - destruct (next_ks E key st) as [k st1] eqn:Ek. destruct (IH st1) as (ks & st' & Hl & H).
      exists (k :: ks), st'. split; [cbn; lia|]. intros [|b t] Hd; [discriminate|].
      cbn [xor_stream]. rewrite Ek, (H t) by (cbn in Hd; lia). reflexivity.
  Qed.

  Lemma splice_len s pos o :
    (N.to_nat pos + length o <= length s)%nat -> length (splice s pos o) = length s.
  Proof. intros H. unfold splice. rewrite !app_length, firstn_length, skipn_length. lia. Qed.

  (* in-place xor of the same keystream at the same place preserves the difference of two samples *)
  Lemma splice_diff s1 s2 pos n ks :
    length s1 = length s2 -> (N.to_nat pos + n <= length s1)%nat -> length ks = n ->
    xorl (splice s1 pos (xorl (firstn n (skipn (N.to_nat pos) s1)) ks))
         (splice s2 pos (xorl (firstn n (skipn (N.to_nat pos) s2)) ks))
    = xorl s1 s2.
  Proof.
    intros Hl Hp Hk. set (P := N.to_nat pos) in *.
    assert (Hseg1 : length (firstn n (skipn P s1)) = n) by (rewrite firstn_length, skipn_length; lia).
    assert (Hseg2 : length (firstn n (skipn P s2)) = n) by (rewrite firstn_length, skipn_length; lia).
    unfold splice. fold P. rewrite !xorl_len, Hseg1, Hseg2 by lia.
    rewrite xorl_app by (rewrite !firstn_length; lia).
    rewrite xorl_app by (rewrite !xorl_len; lia).
    rewrite xorl_cancel by lia.
    rewrite xorl_firstn, xorl_firstn, !xorl_skipn by (rewrite ?skipn_length; lia).
    rewrite skipn_add, (firstn_skipn n), (firstn_skipn P). reflexivity.
  Qed.

  Lemma cenc_loop_diff : forall ssps st pos s1 s2 c1,
    length s1 = length s2 ->
    cenc_loop E key st ssps pos s1 = Ok c1 ->
    exists c2, cenc_loop E key st ssps pos s2 = Ok c2 /\ xorl c1 c2 = xorl s1 s2 /\
               length c1 = length s1 /\ length c2 = length s2.
  Proof.
    induction ssps as [|ss t IH]; intros st pos s1 s2 c1 Hl H; cbn [cenc_loop] in *.
    - injection H as <-. exists s2. repeat split; reflexivity.
    - set (pos' := if 0 <? ss_clear ss then u32 (pos + ss_clear ss) else pos) in *.
      destruct (0 <? ss_prot ss); [|apply (IH st pos' s1 s2 c1 Hl H)].
      set (hi := u32 (pos' + ss_prot ss)) in *.
      unfold slice in *. rewrite <- (lenN_eq s1 s2 Hl).
      destruct ((hi <? pos') || (lenN s1 <? hi)) eqn:Ec; [discriminate|]. cbn [rbind] in *.
      apply orb_false_iff in Ec. destruct Ec as [E1 E2]. apply N.ltb_ge in E1, E2.
      set (n := N.to_nat (hi - pos')) in *.
      assert (Hfit : (N.to_nat pos' + n <= length s1)%nat) by (unfold n, lenN in *; lia).
      (* both segments have n bytes, so both are xored with the same keystream and leave the same state *)
      destruct (xor_stream_ks n st) as (ks & st' & Hk & Hx).
      rewrite Hx in H by (rewrite firstn_length, skipn_length; lia).
      rewrite Hx by (rewrite firstn_length, skipn_length; lia).
      pose proof (splice_diff s1 s2 pos' n ks Hl Hfit Hk) as Hd.
      set (t1 := splice s1 pos' _) in *. set (t2 := splice s2 pos' _) in *.
      assert (Ht1 : length t1 = length s1)
        by (apply splice_len; rewrite xorl_len; rewrite firstn_length, skipn_length; lia).
      assert (Ht2 : length t2 = length s2)
        by (apply splice_len; rewrite xorl_len; rewrite firstn_length, skipn_length; lia).
      destruct (IH st' hi t1 t2 c1 ltac:(lia) H) as (c2 & Hc2 & Hd' & L1 & L2).
      exists c2. split; [exact Hc2|]. split; [congruence|lia].
  Qed.

  (* func CryptSampleCenc applied twice with the same key, IV and map restores the sample *)
  Lemma crypt_sample_cenc_involution iv ssps s c :
    crypt_sample_cenc E key iv ssps s = Ok c -> crypt_sample_cenc E key iv ssps c = Ok s.
  Proof.
    unfold crypt_sample_cenc. destruct (negb (key_ok key)); [discriminate|].
    destruct (negb (lenN iv =? 16)); [discriminate|].
    destruct ssps as [|ss t].
    - intros H. inversion H as [Hc]. clear H.
      destruct (xor_stream_ks (length s) (mkCtr iv [])) as (ks & st' & Hk & Hx).
      rewrite (Hx s eq_refl). cbn [fst]. rewrite (Hx (xorl s ks)) by (rewrite xorl_len; lia).
      cbn [fst]. rewrite xorl_involutive by lia. reflexivity.
    - intros H.
      assert (Hlen : length c = length s).
      { destruct (cenc_loop_diff _ _ _ s s c eq_refl H) as (c2 & _ & _ & L1 & _). exact L1. }
      destruct (cenc_loop_diff _ _ _ s c c (eq_sym Hlen) H) as (c2 & Hc2 & Hd & L1 & L2).
      rewrite Hc2. f_equal. apply (xorl_solve c c2 s); [lia|lia|exact Hd].
  Qed.
End Inv.
