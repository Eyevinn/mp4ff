(* C06TimingProofs.v — the defaults EncryptFragment / DecryptFragment write into trun.Samples (AddSampleDefaultValues
   with THEIR trex) leave no trace in the encoded trun: after encode + decode the trun is the clear one (data offset
   apart), so sample count, sizes, durations, flags, composition offsets and decode times seen by any later reader
   are those of the clear fragment. *)
From V.lib Require Import Base.
From V.c07 Require Import C07Model C07RangeProofs.
From V.c06 Require Import C06Lib C06Model C06FragModel C06TrexModel C06TimingModel.

Lemma rd4_opt4 b x rest : x < 4294967296 -> rd4 b (opt4 b x ++ rest) = ((if b then x else 0), rest).
Proof.
  intros H. unfold rd4, opt4. destruct b; [|reflexivity]. rewrite (u32_small x H).
  change (firstn 4 (be_bytes4 x ++ rest)) with (be_bytes4 x). change (skipn 4 (be_bytes4 x ++ rest)) with rest.
  rewrite be_bytes4_be by exact H. reflexivity.
Qed.

Lemma rd4_absent x rest : rd4 false (opt4 false x ++ rest) = (0, rest).
Proof. reflexivity. Qed.

(* a field the decoder delivered (zero when its flag is off) is read back, whatever default was filled in *)
Lemma rd4_default b x d rest :
  x < 4294967296 -> b || (x =? 0) = true -> rd4 b (opt4 b (if b then x else d) ++ rest) = (x, rest).
Proof. intros Hx H0. destruct b; [apply rd4_opt4; exact Hx|]. apply N.eqb_eq in H0. subst x. reflexivity. Qed.

Lemma rd4_kept b x rest : x < 4294967296 -> b || (x =? 0) = true -> rd4 b (opt4 b x ++ rest) = (x, rest).
Proof. intros Hx H0. rewrite <- (rd4_default b x x rest Hx H0). destruct b; reflexivity. Qed.

Section Loop.
  Variable tr : trun_t.
  Variables dd ds df : N.

  (* what the encoder writes for the samples WITH defaults filled in is read back as the samples the decoder had
     delivered *)
  Lemma decode_encoded_samples : forall l i,
    as_decoded_loop tr i l = true ->
    decode_tsamples tr (tr_first_flags tr) (length l) i
      (flat_map (encode_tsample tr) (add_defaults_loop tr dd ds df i l)) = l.
  Proof.
    induction l as [|s t IH]; intros i H; [reflexivity|].
    cbn [as_decoded_loop] in H. repeat (apply andb_true_iff in H; destruct H as [H ?]).
    rename H into Hdur, H0 into Ht, H1 into Hfl, H2 into Hc0, H3 into Hs0, H4 into Hd0, H5 into Hcto, H6 into Hflb, H7 into Hsz.
    apply N.ltb_lt in Hdur, Hsz, Hflb, Hcto.
    cbn [length add_defaults_loop flat_map decode_tsamples]. unfold encode_tsample at 1.
    cbn [ts_flags ts_dur ts_size ts_cto]. rewrite <- !app_assoc.
    rewrite (rd4_default (tr_dur tr)), (rd4_default (tr_size tr)) by assumption.
    (* per-sample flags are written as they are; otherwise what is written is not read *)
    replace (rd4 (tr_flags tr) (opt4 (tr_flags tr) _ ++ _))
      with ((if tr_flags tr then ts_flags s else 0), opt4 (tr_cto tr) (ts_cto s) ++ flat_map (encode_tsample tr) (add_defaults_loop tr dd ds df (S i) t))
      by (symmetry; destruct (tr_flags tr); [apply rd4_opt4; exact Hflb|reflexivity]).
    rewrite (rd4_kept (tr_cto tr)), (IH (S i) Ht) by assumption.
    destruct s as [f d z c]. cbn [ts_flags ts_dur ts_size ts_cto] in *. f_equal. f_equal.
    destruct (tr_flags tr); [reflexivity|]. apply N.eqb_eq in Hfl. symmetry. exact Hfl.
  Qed.

  Lemma encoded_samples_length : forall l i,
    lenN (flat_map (encode_tsample tr) (add_defaults_loop tr dd ds df i l)) = lenN l * (4 * field_count tr).
  Proof.
    induction l as [|s t IH]; intros i; [reflexivity|].
    cbn [add_defaults_loop flat_map]. rewrite lenN_app, IH, lenN_cons. unfold encode_tsample, opt4, field_count.
    rewrite !lenN_app. destruct (tr_dur tr), (tr_size tr), (tr_flags tr), (tr_cto tr);
      rewrite ?be_bytes4_len; cbn [lenN length N.of_nat]; lia.
  Qed.
End Loop.

Lemma add_defaults_length tr dd ds df : forall l i, length (add_defaults_loop tr dd ds df i l) = length l.
Proof. induction l as [|s t IH]; intros i; [reflexivity|]. cbn [add_defaults_loop length]. rewrite IH. reflexivity. Qed.

(* the trun after the encrypt side's mutation, Encode and decoding is the clear trun with the new data offset *)
Lemma timing_no_trace tfhd trex_e tr off :
  as_decoded tr = true -> off < 4294967296 -> (tr_doff tr = true -> off <> 0) ->
  trun_after_encrypt tfhd trex_e tr off = Ok (set_data_offset tr (if tr_doff tr then off else 0)).
Proof.
  intros Hd Hoff Hnz. unfold as_decoded in Hd. repeat (apply andb_true_iff in Hd; destruct Hd as [Hd ?]).
  rename Hd into Hcnt, H into Hloop, H0 into Hbig, H1 into Hff0, H2 into Hdo0, H3 into Hff, H4 into Hdoff.
  apply N.ltb_lt in Hcnt, Hff. apply negb_true_iff in Hbig.
  unfold trun_after_encrypt, trun_encode_body.
  (* the encoder looks at the flags of the trun only, which the defaults and the offset do not touch *)
  change (encode_tsample (set_data_offset (add_sample_defaults tfhd trex_e tr) off)) with (encode_tsample tr).
  cbn [set_data_offset add_sample_defaults set_samples tr_doff tr_data_offset tr_samples tr_first tr_first_flags].
  set (l' := add_defaults_loop tr _ _ _ 0 (tr_samples tr)).
  replace (tr_doff tr && (off =? 0)) with false
    by (destruct (tr_doff tr); [symmetry; apply N.eqb_neq, Hnz; reflexivity|reflexivity]).
  rewrite (lenN_eq l' (tr_samples tr)), u32_small by (try apply add_defaults_length; exact Hcnt).
  cbn [rbind]. unfold trun_decode_body.
  set (data := _ ++ _).
  assert (Hlen : lenN data = 4 + (if tr_doff tr then 4 else 0) + (if tr_first tr then 4 else 0)
                             + lenN (tr_samples tr) * (4 * field_count tr)).
  { unfold data, l'. rewrite !lenN_app, encoded_samples_length. unfold opt4.
    destruct (tr_doff tr), (tr_first tr); rewrite ?be_bytes4_len; cbn [lenN length N.of_nat]; lia. }
  replace (lenN data <? 4) with false by (symmetry; apply N.ltb_ge; lia).
  change (firstn 4 data) with (be_bytes4 (lenN (tr_samples tr))).
  change (skipn 4 data) with (opt4 (tr_doff tr) off ++ opt4 (tr_first tr) (tr_first_flags tr) ++ flat_map (encode_tsample tr) l').
  rewrite be_bytes4_be, Hlen, N.eqb_refl, Hbig by exact Hcnt. cbn [negb].
  rewrite rd4_opt4, rd4_kept by assumption.
  unfold lenN, l'. rewrite Nat2N.id, (decode_encoded_samples tr _ _ _ (tr_samples tr) 0%nat Hloop). reflexivity.
Qed.

Lemma full_meta_ext base : forall l acc, full_meta base acc l = full_meta base acc l.
Proof. reflexivity. Qed.

(* neither loop looks at the data offset *)
Lemma add_defaults_loop_offset tr off dd ds df : forall l i,
  add_defaults_loop (set_data_offset tr off) dd ds df i l = add_defaults_loop tr dd ds df i l.
Proof. induction l as [|s t IH]; intros i; [reflexivity|]. cbn [add_defaults_loop]. rewrite IH. reflexivity. Qed.

Lemma as_decoded_loop_offset tr off : forall l i, as_decoded_loop (set_data_offset tr off) i l = as_decoded_loop tr i l.
Proof. induction l as [|s t IH]; intros i; [reflexivity|]. cbn [as_decoded_loop]. rewrite IH. reflexivity. Qed.

Lemma fragment_meta_offset tfhd trex tr off base :
  fragment_meta tfhd trex (set_data_offset tr off) base = fragment_meta tfhd trex tr base.
Proof.
  unfold fragment_meta, add_sample_defaults, set_samples. cbn [tr_samples]. f_equal. apply add_defaults_loop_offset.
Qed.

(* as_decoded is kept by the round (the new trun is again what a decoder delivers) *)
Lemma as_decoded_set_offset tr x :
  as_decoded tr = true -> x < 4294967296 -> (tr_doff tr = false -> x = 0) -> as_decoded (set_data_offset tr x) = true.
Proof.
  intros H Hx H0. unfold as_decoded in *. rewrite as_decoded_loop_offset.
  change (field_count (set_data_offset tr x)) with (field_count tr).
  cbn [set_data_offset tr_samples tr_data_offset tr_first_flags tr_doff tr_first].
  repeat (apply andb_true_iff in H; destruct H as [H ?]).
  repeat (apply andb_true_iff; split); try assumption; [apply N.ltb_lt; exact Hx|].
  destruct (tr_doff tr); [reflexivity|]. rewrite (H0 eq_refl). reflexivity.
Qed.

(* the property clause: after encrypt (any trex on the encrypt side, even nil) + encode + decode, and again after
   decrypt + encode + decode, a reader with trex_d sees the sample count, sizes, durations, flags, composition
   offsets and decode times of the clear fragment *)
Lemma timing_roundtrip tfhd trex_e tr off1 off2 :
  as_decoded tr = true ->
  off1 < 4294967296 -> off2 < 4294967296 -> (tr_doff tr = true -> off1 <> 0 /\ off2 <> 0) ->
  exists tr1 tr2,
    trun_after_encrypt tfhd trex_e tr off1 = Ok tr1 /\
    (forall trex_d, trun_after_encrypt tfhd trex_d tr1 off2 = Ok tr2) /\
    tr_samples tr1 = tr_samples tr /\ tr_samples tr2 = tr_samples tr /\
    forall trex_d base,
      fragment_meta tfhd trex_d tr1 base = fragment_meta tfhd trex_d tr base /\
      fragment_meta tfhd trex_d tr2 base = fragment_meta tfhd trex_d tr base.
Proof.
  intros Hd H1 H2 Hnz.
  set (x1 := if tr_doff tr then off1 else 0). set (x2 := if tr_doff tr then off2 else 0).
  exists (set_data_offset tr x1), (set_data_offset tr x2).
  assert (Hx1 : x1 < 4294967296) by (unfold x1; destruct (tr_doff tr); lia).
  assert (Hd1 : as_decoded (set_data_offset tr x1) = true).
  { apply as_decoded_set_offset; [exact Hd|exact Hx1|]. intros E. unfold x1. rewrite E. reflexivity. }
  split; [apply timing_no_trace; [exact Hd|exact H1|intros E; apply (Hnz E)]|].
  split.
  - intros trex_d. rewrite (timing_no_trace tfhd trex_d (set_data_offset tr x1) off2 Hd1 H2).
    + unfold set_data_offset. cbn [tr_doff tr_dur tr_size tr_flags tr_cto tr_first tr_first_flags tr_samples]. reflexivity.
    + cbn [set_data_offset tr_doff]. intros E. apply (Hnz E).
  - split; [reflexivity|]. split; [reflexivity|]. intros trex_d base.
    rewrite !fragment_meta_offset. split; reflexivity.
Qed.

(* ---------------------------------------------------------------- link with the sizes model of C06TrexModel *)
Definition sizing_of (tfhd : tfhd_t) (tr : trun_t) : sizing :=
  mkSizing (lenN (tr_samples tr)) (if tr_size tr then Some (map ts_size (tr_samples tr)) else None) (th_size tfhd).

Lemma full_meta_sizes base : forall l acc, map (fun p => ts_size (fst p)) (full_meta base acc l) = map ts_size l.
Proof. induction l as [|s t IH]; intros acc; [reflexivity|]. cbn [full_meta map fst]. rewrite IH. reflexivity. Qed.

Lemma add_defaults_sizes tr dd ds df : forall l i,
  map ts_size (add_defaults_loop tr dd ds df i l) = if tr_size tr then map ts_size l else repeat ds (length l).
Proof.
  induction l as [|s t IH]; intros i; [destruct (tr_size tr); reflexivity|].
  cbn [add_defaults_loop map ts_size length repeat]. rewrite IH. destruct (tr_size tr); reflexivity.
Qed.

(* the sizes C06_fragment_roundtrip_trex_* split the payload with are the sizes of fragment_meta *)
Lemma sizes_agree tfhd trex tr base :
  sample_sizes (option_map tx_size trex) (sizing_of tfhd tr) = sizes_of_meta (fragment_meta tfhd trex tr base).
Proof.
  unfold sizes_of_meta, fragment_meta. rewrite full_meta_sizes.
  unfold add_sample_defaults, set_samples. cbn [tr_samples]. rewrite add_defaults_sizes.
  unfold sample_sizes, sizing_of. cbn [sg_trun sg_count sg_tfhd]. destruct (tr_size tr); [reflexivity|].
  unfold default_size, default_of. cbn [sg_tfhd]. unfold lenN. rewrite Nat2N.id.
  destruct (th_size tfhd); [reflexivity|]. destruct trex; reflexivity.
Qed.
