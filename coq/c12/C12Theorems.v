(* C12Theorems.v — the property theorems of C12 and nothing else. *)
From V.lib Require Import Base.
From V.c05 Require Import C05CodecModel.
From V.c02 Require Import C02AggModel C02AggFragProofs C02AggScanProofs.
From V.c12 Require Import C12Model C12Spec C12Sidx C12PartProofs C12BoundProofs C12ShapeProofs C12EncProofs C12SidxProofs.
From V.c12 Require Import C12Bytes C12BytesProofs C12StreamProofs C12EptProofs C12C01Model C12C01Proofs.
From V.c05 Require C05SegCodecModel.
From V.c12 Require Import C12PosProofs C12SegBytesProofs.
From V.c05 Require C05Model C05FragModel C05SegModel C05SegProofs.
From V.c12 Require Import C12C05SimProofs.

(* Every accepted top-level sequence, every flag combination: the children of the fragments of the
   segments, flattened in order, are exactly the emsg/moof/mdat boxes of the input in order (minus
   the mdat boxes of a progressive prefix) — each moof and each mdat lands in exactly one fragment
   of exactly one segment, nothing is duplicated, dropped or reordered. *)
Theorem C12_partition : forall (o : opts) (bs : list topbox) (f : file),
  assemble o bs = Ok f ->
  concat (map fr_children (concat (map sg_frags (f_segs f)))) = frag_media false bs.
Proof.
  intros o bs f H. rewrite ffb_flat. exact (partition o bs f H).
Qed.
Print Assumptions C12_partition.

(* for a fragmented file (no mdat before the first styp/moof/emsg/fragmented moov) that is the
   whole emsg/moof/mdat sub-sequence *)
Theorem C12_partition_fragmented : forall (o : opts) (bs : list topbox) (f : file),
  no_progressive_mdat bs = true ->
  assemble o bs = Ok f ->
  concat (map fr_children (concat (map sg_frags (f_segs f)))) = filter is_media bs.
Proof.
  intros o bs f Hn H. rewrite ffb_flat. exact (partition_fragmented o bs f Hn H).
Qed.
Print Assumptions C12_partition_fragmented.

(* ... and each fragment of a decoded file has the shape  emsg* [moof [mdat] emsg*]  with Moof / Mdat
   pointing at those boxes: at most one moof and one mdat per fragment, the mdat directly after its
   moof (a moof/mdat pair is never split over fragments or segments).  Together with
   C12_segment_mode_encode: in a file that re-encodes, every fragment has exactly one pair. *)
Theorem C12_fragment_shape : forall (o : opts) (bs : list topbox) (f : file),
  assemble o bs = Ok f -> Forall (fun s => Forall frag_shape (sg_frags s)) (f_segs f).
Proof. exact fragment_shape. Qed.
Print Assumptions C12_fragment_shape.

(* Where segments start: the (StartPos, has styp) list of the assembled segments is the list computed
   by the boundary rules of C12Spec over the input sequence: a segment starts at box i iff i is a
   styp, or i is an emsg/moof and either no segment exists yet or the delimiter in force designates
   its position (C12_boundary_rules: top-level sidx references / tfra entry / every moof / first only). *)
Theorem C12_boundaries : forall (o : opts) (bs : list topbox) (f : file) (tf : option (list N)),
  assemble o bs = Ok f ->
  find_tfra (o_ism o) bs = Ok tf ->
  map (fun s => (sg_start s, is_some (sg_styp s))) (f_segs f) = boundaries (o_start_on_moof o) tf bstate0 0 bs.
Proof.
  intros o bs f tf A T. destruct (assemble_inv _ _ _ A) as (tf' & f0 & T' & D & ->).
  rewrite T in T'. injection T' as <-.
  apply decode_loop_add_children in D. exact (add_children_bound _ _ _ _ D).
Qed.
Print Assumptions C12_boundaries.

(* the four mechanisms, case by case: position `pos` is designated as the start of segment number
   q_nseg iff (1) there are top-level sidx boxes and the q_nseg-th start offset they list (anchor +
   sizes of the preceding media references, a type-1 reference ends a sidx) is pos; or (2) there is
   none, the ISM flag found a tfra, and its entry number q_nseg has moof offset pos; or (3) neither,
   DecStartOnMoof is set, and the current segment was not started by a styp and has no fragment
   still waiting for its moof; (4) otherwise never (only the first emsg/moof starts a segment). *)
Theorem C12_boundary_rules : forall (som : bool) (tf : option (list N)) (q : bstate) (pos : N),
  designated som tf q pos = true <->
  (q_sidxs q <> [] /\ nth_error (sidx_starts (q_sidxs q)) (q_nseg q) = Some pos) \/
  (q_sidxs q = [] /\ exists offs, tf = Some offs /\ nth_error offs (q_nseg q) = Some pos) \/
  (q_sidxs q = [] /\ tf = None /\ som = true /\ q_styp q = false /\ q_open q = false).
Proof.
  intros som tf q pos.
  unfold designated, sidx_designates. destruct (q_sidxs q) as [|sx r].
  - destruct tf as [offs|]; [|destruct som].
    + fold (hit offs (q_nseg q) pos). rewrite hit_true. split.
      * intros H. right. left. eauto.
      * intros [[H _] | [(_ & offs' & [= <-] & H) | (_ & H & _)]]; [destruct (H eq_refl)|exact H|discriminate].
    + rewrite andb_true_iff, !negb_true_iff. split.
      * intros [H1 H2]. right. right. auto.
      * intros [[H _] | [(_ & offs' & H & _) | (_ & _ & _ & H)]]; [destruct (H eq_refl)|discriminate|exact H].
    + split; [discriminate|].
      intros [[H _] | [(_ & offs' & H & _) | (_ & _ & H & _)]]; [destruct (H eq_refl)|discriminate|discriminate].
  - fold (hit (sidx_starts (sx :: r)) (q_nseg q) pos). rewrite hit_true. split.
    + intros H. left. split; [discriminate|exact H].
    + intros [[_ H] | [(H & _) | (H & _)]]; [exact H|discriminate|discriminate].
Qed.
Print Assumptions C12_boundary_rules.

(* Re-encoding in segment mode, when it succeeds, writes the init boxes, the top-level sidx boxes,
   per segment styp / sidx boxes / the fragments' children, then mfra; the emsg/moof/mdat boxes
   written are exactly the input's in order; and success means every fragment holds a moof and an
   mdat.  (Byte identity of each written box with its input bytes is observed by the harness;
   it is C01's statement, not proved here.) *)
Theorem C12_segment_mode_encode : forall (o : opts) (bs : list topbox) (f : file) (out : list topbox),
  assemble o bs = Ok f ->
  encode_segment_mode f = Ok out ->
  out = init_boxes f ++ map sx_box (f_sidxs f) ++ concat (map seg_boxes (f_segs f)) ++ opt_list (f_mfra f) /\
  filter is_media out = frag_media false bs /\
  Forall (fun s => Forall (fun fr => is_some (fr_moof fr) = true /\ is_some (fr_mdat fr) = true) (sg_frags s)) (f_segs f).
Proof. exact segment_mode_encode. Qed.
Print Assumptions C12_segment_mode_encode.

(* Re-encoding in the default segment mode is the identity, box for box: for EVERY accepted top-level
   sequence of the shape  [ftyp] moov(fragmented) sidx* ( styp sidx* | emsg | moof | mdat )* [mfra]
   (C12Bytes.layout_ok; also without the init part), whatever the decode flags and whichever delimiter
   (styp, sidx references, tfra, start-on-moof) cut it into segments, File.Encode writes exactly the
   input boxes in the input order.  An emsg before the first moof, several top-level sidx boxes, sidx
   boxes behind a styp, an mfra at the end are all inside. *)
Theorem C12_reencode_boxes : forall (o : opts) (bs : list topbox) (f : file) (out : list topbox),
  assemble o bs = Ok f -> layout_ok bs = true -> encode_segment_mode f = Ok out -> out = bs.
Proof. exact reencode_boxes. Qed.
Print Assumptions C12_reencode_boxes.

(* ... and byte for byte.  env gives, per box, its input bytes, the bytes its decoded form encodes to, and
   for a moof with a single trun the position of that trun's data_offset field.  Hypotheses: every box
   re-encodes to its own bytes (`stable`: C01's statement per box), every input box starts with a correct
   size field (`all_ok`: C02's box_ok), and (`doffs_ok`) the data offset of a single-trun fragment already
   is moof size + mdat header size, the value Fragment.Encode's SetTrunDataOffsets writes over it.  Then:
   following the size fields of the input stream splits it into exactly these boxes (C02's scan), and
   decode + File.Encode (segment mode, no UpdateSidx, no optimisation, mdat read eagerly) writes exactly
   these byte strings in this order: the output stream IS the input stream.  All decode flags. *)
Theorem C12_reencode_identical : forall (env : N -> binfo) (o : opts) (bs : list topbox) (f : file) (out : list topbox),
  assemble o bs = Ok f -> layout_ok bs = true -> encode_segment_mode f = Ok out ->
  forallb (stable env) bs = true -> doffs_ok env bs = true ->
  all_ok (map (in0 env) bs) ->
  let stream := concat (map (in0 env) bs) in
  scan (length bs) stream = Some (map (in0 env) bs) /\
  out = bs /\
  exists written, file_bytes env f = Ok written /\ written = map (in0 env) bs /\ concat written = stream /\
                  reencode env o bs = Ok stream.
Proof.
  intros env o bs f out A Hl E Hs Hd Hok. cbn zeta.
  destruct (reencode_identical env o bs f out A Hl E Hs Hd) as (Ho & Fb & Re).
  split. { rewrite <- (map_length (in0 env) bs). apply scan_all_ok. exact Hok. }
  split; [exact Ho|]. exists (map (in0 env) bs). auto.
Qed.
Print Assumptions C12_reencode_identical.

(* The per-box hypothesis `stable` discharged by C01 (coq/c01, read-only).  The byte environment is COMPUTED from the
   input bytes: c01_env gives, for the box at a tag, what C01's model of Box.Encode writes for the tree C01's model of
   DecodeBoxSR returns for these bytes (c01_reenc).  c01_box x: x was written by the library (the Box.Encode output of any
   exactly decoded tree - C01_fixpoint makes it a fixed point) or x decodes to a tree with no reported reason to differ
   (C01_fixpoint_partial).  For every layout_ok stream of such boxes - ftyp, styp, moov, sidx, emsg, moof, mdat, mfra as far
   as C01 models their content, unknown boxes as raw bytes - decode + segment-mode Encode writes the input stream.  Left as
   hypotheses: doffs_ok (known finding C12-K1) and all_ok (size fields: C02). *)
Theorem C12_reencode_identical_c01 :
  forall (inb : N -> list N) (doff : N -> option N) (o : opts) (bs : list topbox) (f : file) (out : list topbox),
  assemble o bs = Ok f -> layout_ok bs = true -> encode_segment_mode f = Ok out ->
  (forall b, In b bs -> c01_box (inb (b_tag b))) ->
  doffs_ok (c01_env inb doff) bs = true ->
  all_ok (map (fun b => inb (b_tag b)) bs) ->
  let stream := concat (map (fun b => inb (b_tag b)) bs) in
  scan (length bs) stream = Some (map (fun b => inb (b_tag b)) bs) /\
  out = bs /\
  reencode (c01_env inb doff) o bs = Ok stream.
Proof.
  intros inb doff o bs f out A Hl E Hc Hd Hok. cbn zeta.
  assert (Ein : map (in0 (c01_env inb doff)) bs = map (fun b => inb (b_tag b)) bs) by reflexivity.
  rewrite <- Ein in *.
  destruct (C12_reencode_identical (c01_env inb doff) o bs f out A Hl E (c01_stable inb doff bs Hc) Hd Hok)
    as (S1 & S2 & w & _ & _ & _ & S3).
  auto.
Qed.
Print Assumptions C12_reencode_identical_c01.

(* From the bytes to the segment partition.  The stream is the concatenation of the boxes' bytes, each as long as its
   Size() (`sized`), shorter than 2^64 bytes, of a layout_ok layout; ANY decode flags / delimiter.  Then the stream of boxes
   splits as  init ++ top-level sidx ++ segments ++ [mfra], and for segment i: MediaSegment.StartPos (sg_start) IS the number
   of bytes in front of the segment, the stream from that byte offset on is the segment's bytes followed by the rest; for its
   fragment j: Fragment.StartPos (fr_start) IS the number of bytes in front of the fragment's first child; and for child k of
   the fragment (emsg, moof, mdat): the stream at offset fr_start + sizes of the children before it starts with the child's
   bytes, and the box that C05's byte-level reader (C05SegCodecModel.next_box: DecodeHeader + the size check, composed
   read-only) decodes there is the box it decodes from the child's bytes alone - the abstract partition of C12_partition
   is a partition of the byte stream at the recorded positions. *)
Theorem C12_partition_bytes : forall (env : N -> binfo) (o : opts) (bs : list topbox) (f : file),
  assemble o bs = Ok f -> layout_ok bs = true ->
  sized env bs -> sumN (map b_size bs) < M64 ->
  bs = hdr f ++ asb (f_segs f) ++ opt_list (f_mfra f) /\
  forall i s, nth_error (f_segs f) i = Some s ->
    let pre := hdr f ++ asb (firstn i (f_segs f)) in
    let post := asb (skipn (S i) (f_segs f)) ++ opt_list (f_mfra f) in
    bs = pre ++ seg_boxes s ++ post /\
    sg_start s = lenN (bytes_of env pre) /\
    skipn (N.to_nat (sg_start s)) (bytes_of env bs) = bytes_of env (seg_boxes s) ++ bytes_of env post /\
    forall j fr, nth_error (sg_frags s) j = Some fr ->
      let fpre := pre ++ seg_head s ++ frs_boxes (firstn j (sg_frags s)) in
      let fpost := frs_boxes (skipn (S j) (sg_frags s)) ++ post in
      bs = fpre ++ fr_children fr ++ fpost /\
      fr_start fr = lenN (bytes_of env fpre) /\
      forall k c, nth_error (fr_children fr) k = Some c ->
        let off := fr_start fr + sumN (map b_size (firstn k (fr_children fr))) in
        exists tail, skipn (N.to_nat off) (bytes_of env bs) = in0 env c ++ tail /\
          forall ty sz hl body,
            C05SegCodecModel.next_box (in0 env c) = Ok (ty, sz, hl, body, []) ->
            C05SegCodecModel.next_box (skipn (N.to_nat off) (bytes_of env bs)) = Ok (ty, sz, hl, body, tail).
Proof.
  intros env o bs f A Hl Hs Hlt. unfold asb.
  destruct (assemble_layout _ _ _ A Hl) as [Em P]. unfold emitted, body in Em. rewrite <- app_assoc in Em.
  split; [symmetry; exact Em|].
  intros i s Hi. cbn zeta.
  assert (E1 : bs = (hdr f ++ concat (map seg_boxes (firstn i (f_segs f)))) ++ seg_boxes s ++
                    concat (map seg_boxes (skipn (S i) (f_segs f))) ++ opt_list (f_mfra f)).
  { rewrite <- Em, (concat_map_nth _ _ _ _ Hi), <- !app_assoc. reflexivity. }
  destruct (segs_pos_nth _ _ _ _ P Hi) as [Q1 Q2].
  destruct (located env bs _ _ E1 Hs Hlt) as [L1 L2].
  split; [exact E1|]. split; [rewrite Q1; exact L1|]. split.
  { rewrite Q1, L1, L2, bytes_of_app. reflexivity. }
  intros j fr Hj.
  set (fpre := (hdr f ++ concat (map seg_boxes (firstn i (f_segs f)))) ++ seg_head s ++ frs_boxes (firstn j (sg_frags s))).
  set (rest := frs_boxes (skipn (S j) (sg_frags s)) ++ concat (map seg_boxes (skipn (S i) (f_segs f))) ++ opt_list (f_mfra f)).
  assert (E2 : bs = fpre ++ fr_children fr ++ rest).
  { rewrite E1, seg_boxes_head. unfold seg_fragment_boxes. rewrite (concat_map_nth _ _ _ _ Hj).
    subst fpre rest. unfold frs_boxes. rewrite <- !app_assoc. reflexivity. }
  destruct (located env bs _ _ E2 Hs Hlt) as [M1 _].
  split; [exact E2|]. rewrite (Q2 j fr Hj), app_assoc. fold fpre. split; [exact M1|].
  intros k c Hk. rewrite (split_nth _ _ _ Hk), <- app_assoc in E2. eexists. exact (box_at env _ _ _ _ _ _ E2 Hs Hlt M1).
Qed.
Print Assumptions C12_partition_bytes.

(* ... and for the moof/mdat pair of a fragment (Fragment.Moof / Fragment.Mdat): the children are emsg* moof mdat emsg*, the
   moof lies at byte offset StartPos + sizes of the leading emsg boxes, the mdat directly behind it, and C05's reader decodes
   exactly these two boxes there (for a moof: dec_top_box then yields the decoded trafs that C05's fragment theorems read) *)
Theorem C12_partition_bytes_pair :
  forall (env : N -> binfo) (o : opts) (bs : list topbox) (f : file) i s j fr m d,
  assemble o bs = Ok f -> layout_ok bs = true ->
  sized env bs -> sumN (map b_size bs) < M64 ->
  nth_error (f_segs f) i = Some s -> nth_error (sg_frags s) j = Some fr ->
  fr_moof fr = Some m -> fr_mdat fr = Some d ->
  exists es1 es2 tail,
    all_emsg es1 = true /\ all_emsg es2 = true /\ fr_children fr = es1 ++ m :: d :: es2 /\
    b_kind m = KMoof /\ b_kind d = KMdat /\
    let moff := fr_start fr + sumN (map b_size es1) in
    skipn (N.to_nat moff) (bytes_of env bs) = in0 env m ++ in0 env d ++ tail /\
    (forall ty sz hl body,
        C05SegCodecModel.next_box (in0 env m) = Ok (ty, sz, hl, body, []) ->
        C05SegCodecModel.next_box (skipn (N.to_nat moff) (bytes_of env bs)) = Ok (ty, sz, hl, body, in0 env d ++ tail)) /\
    (forall ty sz hl body,
        C05SegCodecModel.next_box (in0 env d) = Ok (ty, sz, hl, body, []) ->
        C05SegCodecModel.next_box (skipn (N.to_nat (moff + b_size m)) (bytes_of env bs)) = Ok (ty, sz, hl, body, tail)).
Proof.
  intros env o bs f i s j fr m d A Hl Hs Hlt Hi Hj Hm Hd.
  destruct (frag_shape_in _ _ _ _ _ A (nth_error_In _ _ Hi) (nth_error_In _ _ Hj)) as (es1 & es2 & He1 & He2 & Hc).
  rewrite Hm, Hd in Hc. destruct Hc as (Hc & Km & Kd).
  destruct (proj2 (C12_partition_bytes env o bs f A Hl Hs Hlt) i s Hi) as (_ & _ & _ & Hf). destruct (Hf j fr Hj) as (E2 & Fs & _).
  rewrite Hc, <- (app_assoc es1) in E2. cbn [app] in E2.
  destruct (box_at env _ _ _ _ _ _ E2 Hs Hlt Fs) as [S1 D1].
  change (es1 ++ m :: d :: ?r) with (es1 ++ [m] ++ d :: r) in E2. rewrite (app_assoc es1) in E2.
  destruct (box_at env _ _ _ _ _ _ E2 Hs Hlt Fs) as [_ D2]. rewrite map_app, sumN_app, N.add_assoc in D2. cbn [map sumN] in D2.
  rewrite N.add_0_r in D2.
  exists es1, es2. eexists. exact (conj He1 (conj He2 (conj Hc (conj Km (conj Kd (conj S1 (conj D1 D2))))))).
Qed.
Print Assumptions C12_partition_bytes_pair.

(* C12's assembly model and C05's segment decoder (coq/c05 C05SegModel.seg_decode, read-only) are two transcriptions of
   DecodeFile's loop over different box types; they agree.  to_tbox abstracts a C12 box to a C05 box (the decoded trafs of a
   moof, the payload of an mdat and the position of a box are supplied by tag), view reads a C12 File as a C05 decoder state
   (fragments: moof = (its position, its trafs), mdat = (its position + header size, its payload)).  Default decode flags,
   a stream of styp/sidx/emsg/moof/mdat/other boxes at consistent positions below 2^64, with or without an init segment in
   front: whenever C12's loop accepts, C05's accepts the abstracted stream with exactly the view of C12's result. *)
Theorem C12_c05_simulation :
  forall (trafs_of : N -> list C05FragModel.traf) (payload_of : N -> list N) (mpos : N -> N)
         (bs : list topbox) (fragmented0 : bool) (pos0 : N) (f : file),
  forallb seg_kind bs = true -> Forall (mdat_ok payload_of) bs -> positions_ok mpos pos0 bs ->
  pos0 + sumN (map b_size bs) < M64 ->
  decode_loop (file0 fragmented0) pos0 None bs = Ok f ->
  C05SegModel.seg_decode fragmented0 pos0 (map (to_tbox trafs_of payload_of) bs) = Ok (view trafs_of payload_of mpos f).
Proof.
  intros trafs_of payload_of mpos bs fragmented0 pos0 f Hk Hm Hp Hlt D. unfold C05SegModel.seg_decode.
  change (C05SegModel.mkFstate fragmented0 [] [] None) with (view trafs_of payload_of mpos (file0 fragmented0)).
  change false with (last_moof None). apply sim_loop; auto. unfold plain, file0. cbn. auto.
Qed.
Print Assumptions C12_c05_simulation.

(* ... hence, through C05_segment_decode (C05SegProofs.decode_stream): when the abstracted stream is the stream of a
   segment as C05 describes it (head = nothing or styp + sidx boxes; per encoded fragment: boxes before the moof, moof, mdat,
   boxes behind), the fragments C12 assembles are, one for one and in order, these encoded fragments, each with its moof at
   the moof's stream position and its mdat payload at the payload's stream position (items_dfrs): the partition C12 proves
   things about is the one C05's read-back theorems (C05_segment_roundtrip and its variants) start from. *)
Theorem C12_c05_segment_decode :
  forall (trafs_of : N -> list C05FragModel.traf) (payload_of : N -> list N) (mpos : N -> N)
         (head : list C05SegModel.xbox) (its : list C05SegModel.eitem)
         (bs : list topbox) (fragmented0 : bool) (pos0 : N) (f : file),
  C05SegModel.head_ok head = true -> forallb C05SegProofs.item_kinds its = true ->
  map (to_tbox trafs_of payload_of) bs = C05SegModel.seg_stream head its ->
  forallb seg_kind bs = true -> Forall (mdat_ok payload_of) bs -> positions_ok mpos pos0 bs ->
  pos0 + sumN (map b_size bs) < M64 ->
  decode_loop (file0 fragmented0) pos0 None bs = Ok f ->
  C05SegModel.file_frags (view trafs_of payload_of mpos f) = C05SegProofs.items_dfrs (pos0 + C05SegModel.xsum head) its.
Proof.
  intros trafs_of payload_of mpos head its bs fragmented0 pos0 f Hh Hi Es Hk Hm Hp Hlt D.
  destruct (C05SegProofs.decode_stream head its fragmented0 pos0 Hh Hi) as (st & E & F).
  pose proof (C12_c05_simulation trafs_of payload_of mpos bs fragmented0 pos0 f Hk Hm Hp Hlt D) as S.
  rewrite Es, E in S. injection S as ->. exact F.
Qed.
Print Assumptions C12_c05_segment_decode.

(* Outside layout_ok File.Encode does NOT reproduce the file (each line: accepted, encoded without error,
   tags of the boxes written): a free box is dropped; a sidx behind a fragment moves in front of its
   segment's fragments; an mfra that is not last moves to the end; an ftyp behind the moov, the first of two
   moov boxes, a non-fragmented moov (with its ftyp) and an mdat in front of the first fragment are dropped;
   a sidx in front of the moov moves behind it. *)
Theorem C12_reencode_refuted :
  tags_after [rb KFtyp 24; rmoov true; rb KOther 16; rb KMoof 100; rb KMdat 40] = Ok [0; 1; 3; 4] /\
  tags_after [rb KFtyp 24; rmoov true; rb KStyp 24; rb KMoof 100; rb KMdat 40; rb KSidx 44; rb KMoof 100; rb KMdat 40]
    = Ok [0; 1; 2; 5; 3; 4; 6; 7] /\
  tags_after [rb KFtyp 24; rmoov true; rb KMoof 100; rb KMdat 40; rb KMfra 60; rb KMoof 100; rb KMdat 40]
    = Ok [0; 1; 2; 3; 5; 6; 4] /\
  tags_after [rmoov true; rb KFtyp 24; rb KMoof 100; rb KMdat 40] = Ok [0; 2; 3] /\
  tags_after [rb KFtyp 24; rmoov true; rmoov true; rb KMoof 100; rb KMdat 40] = Ok [0; 2; 3; 4] /\
  tags_after [rb KFtyp 24; rb KSidx 44; rmoov true; rb KMoof 100; rb KMdat 40] = Ok [0; 2; 1; 3; 4] /\
  tags_after [rb KFtyp 24; rmoov false; rb KMoof 100; rb KMdat 40] = Ok [2; 3] /\
  tags_after [rb KMdat 40; rb KStyp 24; rb KMoof 100; rb KMdat 40] = Ok [1; 2; 3].
Proof. vm_compute. repeat split; reflexivity.
Qed.
Print Assumptions C12_reencode_refuted.

(* Without doffs_ok: a layout_ok file of stable boxes whose only trun has data offset 132 (moof 120 + mdat
   header 8 + 4: the sample starts 4 bytes into the payload) is re-encoded with data offset 128: not
   byte-identical, and the sample now points 4 bytes early.  Real code: known_findings/C12.json C12-K1. *)
Theorem C12_reencode_doff_refuted :
  layout_ok doff_boxes = true /\ forallb (stable doff_env) doff_boxes = true /\ doffs_ok doff_env doff_boxes = false /\
  exists out, reencode doff_env (mkOpts false false) doff_boxes = Ok out /\
              out <> concat (map (in0 doff_env) doff_boxes) /\
              firstn 4 (skipn (8 + 9 + 96) out) = be32 128 /\
              firstn 4 (skipn (8 + 9 + 96) (concat (map (in0 doff_env) doff_boxes))) = be32 132.
Proof.
  split; [reflexivity|]. split; [vm_compute; reflexivity|]. split; [vm_compute; reflexivity|].
  eexists. split; [vm_compute; reflexivity|]. split; [|split; vm_compute; reflexivity].
  intros H. apply (f_equal (fun l => nth 116 l 0)) in H. vm_compute in H. discriminate.
Qed.
Print Assumptions C12_reencode_doff_refuted.

(* After UpdateSidx (when it adds or refills an index) and segment-mode encoding: for every i, the
   output splits into `before` ++ segments i.. ++ mfra where `before` has exactly
   anchor + (sum of the first i referenced sizes) bytes — reference i starts at the first byte of
   segment i and (i = number of segments) the references end where the media ends; every reference
   has type 0, its referenced_size IS the segment's size and fits the 31-bit field (what a reader of
   the written word `type<<31 | size` gets back is (0, size of the segment)), its duration IS the
   summed sample durations of the reference track over all trafs of all fragments of the segment,
   in whatever order the trafs come and whether or not a fragment holds the reference track, and
   fits 32 bits; reference_ID / timescale are the reference track's.
   No bound on segment sizes or durations any more (repo commit 85561e1: UpdateSidx returns an error
   instead of wrapping; the guard `< 2^64` only says that Size() and the uint64 duration accumulator,
   whose wrap the model writes out, do not wrap: a file of 16 EiB).  Sizes are Size() values: that a
   box encodes to Size() bytes is C02's statement. *)
Theorem C12_sidx_tiles : forall (f : file) (add nz : bool) (newtag : N) (f' : file) (out : list topbox),
  update_sidx f add nz newtag = Ok f' ->
  (add = true \/ f_sidxs f <> []) ->
  encode_segment_mode f' = Ok out ->
  Forall (fun s => seg_size s < M64) (f_segs f) ->
  exists sx rest moov rt,
    f_sidxs f' = sx :: rest /\ f_moov f = Some moov /\ find_reference_trak (b_traks moov) = Ok rt /\
    let refs := b_refs (sx_box sx) in
    let segs := f_segs f' in
    length refs = length segs /\ segs = f_segs f /\ segs <> [] /\
    (forall i, (i <= length segs)%nat ->
       let before := init_boxes f' ++ map sx_box (f_sidxs f') ++ concat (map seg_boxes (firstn i segs)) in
       out = before ++ concat (map seg_boxes (skipn i segs)) ++ opt_list (f_mfra f') /\
       anchor_in_output f' sx + sumN (firstn i (map r_size refs)) = sizes_of before) /\
    Forall2 (fun r s => r_size r = seg_size s /\ r_size r < M31 /\ r_type r = 0 /\
                        dec_ref_word (enc_ref_word r) = (0, seg_size s) /\
                        r_dur r = seg_ref_dur (k_id rt) s mod M64 /\ r_dur r < M32) refs segs /\
    b_refid (sx_box sx) = k_id rt /\ b_timescale (sx_box sx) = k_timescale rt.
Proof. exact sidx_tiles. Qed.
Print Assumptions C12_sidx_tiles.

(* The text before 85561e1 (uint32 accumulator, uint32(seg.Size())): a segment of 2^31 + 100 bytes got
   a reference that reads back as type 1 (a reference to another sidx) of 100 bytes; two samples of
   3*10^9 ticks (5 minutes each at the 10 MHz Smooth Streaming timescale) a duration of 1705032704
   instead of 6*10^9; both without an error.  The repaired text returns an error for both files.
   Replayed on the real code: known_findings/C12.json C12-F6. *)
Theorem C12_sidx_pinned_refuted :
  (exists f, assemble (mkOpts false false) p_big = Ok f /\ map seg_size (f_segs f) = [2147483748] /\
             first_ref (update_sidx_pinned f true false 9) = Some ((1, 100), 10) /\
             update_sidx f true false 9 = Err) /\
  (exists f, assemble (mkOpts false false) p_long = Ok f /\ map (seg_ref_dur 1) (f_segs f) = [6000000000] /\
             first_ref (update_sidx_pinned f true false 9) = Some ((0, 116), 1705032704) /\
             update_sidx f true false 9 = Err).
Proof.
  split; (eexists; split; [vm_compute; reflexivity|]); vm_compute; repeat split; reflexivity.
Qed.
Print Assumptions C12_sidx_pinned_refuted.

(* earliest_presentation_time: exactly what UpdateSidx writes (repo commit 48b8dea).  Version 1 (64-bit field);
   0 unless nonZeroEPT; with nonZeroEPT seg_pt of the first segment: the presentation time - tfdt base time of
   its traf + its composition time offset (signed: trun version 1), as Go's uint64(int64(base) + cto), i.e.
   mod 2^64 - of the FIRST SAMPLE of the reference track in the first segment, in whichever fragment, track
   fragment and trun that sample sits (fragments without the reference track, trafs without samples and empty
   truns in front of it are skipped); if the track has trafs but no sample in the segment, the base time of the
   first of them; if the segment does not hold the track, 0.  Not claimed: that this is the minimum over all
   samples (it is when no later sample is presented before the first one, e.g. closed GOPs). *)
Theorem C12_sidx_ept : forall (f : file) (add nz : bool) (newtag : N) (f' : file),
  update_sidx f add nz newtag = Ok f' ->
  (add = true \/ f_sidxs f <> []) ->
  exists sx rest moov rt s0 srest,
    f_sidxs f' = sx :: rest /\ f_moov f = Some moov /\ find_reference_trak (b_traks moov) = Ok rt /\
    f_segs f = s0 :: srest /\
    b_version (sx_box sx) = 1 /\
    b_ept (sx_box sx) = (if nz then seg_pt (k_id rt) s0 else 0) /\
    (forall before t after,
        ref_trafs (k_id rt) s0 = before ++ t :: after ->
        forallb (fun u => negb (traf_has_sample u)) before = true -> traf_has_sample t = true ->
        seg_pt (k_id rt) s0 = pt_of (t_base t) (t_cto0 t)).
Proof.
  intros f add nz newtag f' U Hdo. unfold update_sidx in U.
  destruct (update_sidx_shape _ _ _ _ _ _ U Hdo) as (moov & rt & sds & old & anc & rest & Hm & Hr & Hf & Hs & Hsegs & Hi & Hmf & Hne).
  destruct (f_segs f) as [|s0 srest] eqn:Es; [congruence|].
  unfold find_segment_data in Hf. cbn [find_segment_data_g] in Hf.
  destruct (seg_data_of (k_id rt) s0) as [d| | |] eqn:Ed; cbn [rbind] in Hf; try discriminate.
  destruct (find_segment_data_g seg_data_of (k_id rt) srest) as [r| | |]; cbn [rbind] in Hf; try discriminate.
  injection Hf as <-.
  eexists _, rest, moov, rt, s0, srest. split; [exact Hs|]. split; [exact Hm|]. split; [exact Hr|].
  split; [reflexivity|]. cbn [sx_box fill_sidx b_version b_ept]. split; [reflexivity|]. split.
  - rewrite (seg_data_of_pt _ _ _ Ed). reflexivity.
  - intros before t after E Hb Ht. unfold seg_pt. rewrite E.
    assert (F : find traf_has_sample (before ++ t :: after) = Some t).
    { clear - Hb Ht. induction before as [|x r IH]; cbn [app find].
      - rewrite Ht. reflexivity.
      - cbn [forallb] in Hb. apply andb_prop in Hb. destruct Hb as [Hx Hr].
        apply negb_true_iff in Hx. rewrite Hx. apply IH. exact Hr. }
    rewrite F. reflexivity.
Qed.
Print Assumptions C12_sidx_ept.

(* The text before 48b8dea looked at the first fragment and the first trun only.  `ftyp moov(video 1, audio 2) styp
   moof(audio) mdat moof(video: base 90000, first offset 3000) mdat`: it wrote 0 although a non-zero time was asked
   for (now 93000); a video traf whose first trun is empty: it wrote the DECODE time 90000 (now 93000); and a negative
   offset (-3000) gives 87000, nonZeroEPT = false gives 0.  Replayed on the real code: known_findings/C12.json C12-F7. *)
Theorem C12_sidx_ept_pinned_refuted :
  (exists f, assemble (mkOpts false false) e_late = Ok f /\ map (seg_pt 1) (f_segs f) = [93000] /\
             ept_of (update_sidx_eptold f true true 9) = Some 0 /\ ept_of (update_sidx f true true 9) = Some 93000) /\
  (exists f, assemble (mkOpts false false) e_trun2 = Ok f /\ map (seg_pt 1) (f_segs f) = [93000] /\
             ept_of (update_sidx_eptold f true true 9) = Some 90000 /\ ept_of (update_sidx f true true 9) = Some 93000) /\
  (exists f, assemble (mkOpts false false) e_neg = Ok f /\
             ept_of (update_sidx f true true 9) = Some 87000 /\ ept_of (update_sidx f true false 9) = Some 0).
Proof.
  repeat split; (eexists; split; [vm_compute; reflexivity|]); vm_compute; repeat split; reflexivity.
Qed.
Print Assumptions C12_sidx_ept_pinned_refuted.

(* Which track is "the reference track": the first video track of the moov, else the first audio
   track, else the first track - by position in the moov, not by track id; None of the three exists
   only for a moov without trak (Panic in the model: Go indexes Traks[0]). *)
Theorem C12_reference_track : forall (traks : list trak),
  match find_reference_trak traks with
  | Ok rt =>
      exists before after, traks = before ++ rt :: after /\
        ((k_handler rt = 0 /\ Forall (fun k => k_handler k <> 0) before) \/
         (k_handler rt = 1 /\ Forall (fun k => k_handler k <> 0) traks /\ Forall (fun k => k_handler k <> 1) before) \/
         (before = [] /\ Forall (fun k => k_handler k <> 0 /\ k_handler k <> 1) traks))
  | Panic => traks = []
  | _ => False
  end.
Proof.
  intros traks.
  unfold find_reference_trak.
  destruct (find (fun k => k_handler k =? 0) traks) as [v|] eqn:Fv.
  - destruct (find_split _ _ _ Fv) as (b & c & E & Pv & Fb). exists b, c. split; [exact E|]. left.
    split; [apply N.eqb_eq; exact Pv|]. eapply Forall_impl; [|exact Fb]. cbn. intros k Hk. apply N.eqb_neq. exact Hk.
  - pose proof (find_none_all _ _ Fv) as Nv.
    assert (Nv' : Forall (fun k => k_handler k <> 0) traks)
      by (eapply Forall_impl; [|exact Nv]; cbn; intros k Hk; apply N.eqb_neq; exact Hk).
    destruct (find (fun k => k_handler k =? 1) traks) as [a|] eqn:Fa.
    + destruct (find_split _ _ _ Fa) as (b & c & E & Pa & Fb). exists b, c. split; [exact E|]. right; left.
      split; [apply N.eqb_eq; exact Pa|]. split; [exact Nv'|].
      eapply Forall_impl; [|exact Fb]. cbn. intros k Hk. apply N.eqb_neq. exact Hk.
    + pose proof (find_none_all _ _ Fa) as Na. destruct traks as [|k t]; [reflexivity|].
      exists [], t. split; [reflexivity|]. right; right. split; [reflexivity|].
      apply Forall_forall. intros x Hx. rewrite Forall_forall in Nv', Na. split; [apply Nv'; exact Hx|].
      apply N.eqb_neq. apply Na. exact Hx.
Qed.
Print Assumptions C12_reference_track.

(* the hypotheses of the theorems above are satisfiable *)
(* ftyp moov styp moof mdat moof mdat styp moof mdat: two segments of 2 and 1 fragments, track 2 is video *)
Definition bx (k : kind) (size : N) : topbox := mkBox k 0 size 8 0 [] false [] false [] [] 0 0 0 0.
Definition ex_moov : topbox :=
  mkBox KMoov 0 600 8 0 [] true [] false [] [mkTrak 1 1 1000 true; mkTrak 2 0 2000 true] 0 0 0 0.
Definition ex_moof (base : N) (durs : list N) : topbox :=
  mkBox KMoof 0 100 8 0 [] false [] false [mkTraf 1 base [[5; 5]] 0; mkTraf 2 base [durs] 7] [] 0 0 0 0.
Definition ex_boxes : list topbox :=
  number_from 0 [bx KFtyp 24; ex_moov; bx KStyp 24; ex_moof 0 [10; 20]; bx KMdat 50; ex_moof 30 [30]; bx KMdat 40;
                 bx KStyp 24; ex_moof 60 [40; 2]; bx KMdat 60].

Example C12_example_partition :
  match assemble (mkOpts false false) ex_boxes with
  | Ok f => map (fun s => map (fun fr => map b_tag (fr_children fr)) (sg_frags s)) (f_segs f)
            = [[[3; 4]; [5; 6]]; [[8; 9]]]
            /\ map sg_start (f_segs f) = [624; 938]
  | _ => False
  end.
Proof. vm_compute. split; reflexivity. Qed.

(* a top-level sidx with two references (314 and 184 bytes) delimits the same file without styp boxes *)
Definition ex_sidx : topbox :=
  mkBox KSidx 0 64 8 0 [mkRef 0 290 60; mkRef 0 160 42] false [] false [] [] 1 2 2000 0.
Definition ex_boxes_sidx : list topbox :=
  number_from 0 [bx KFtyp 24; ex_moov; ex_sidx; ex_moof 0 [10; 20]; bx KMdat 50; ex_moof 30 [30]; bx KMdat 40;
                 ex_moof 60 [40; 2]; bx KMdat 60].

Example C12_example_boundaries :
  boundaries false None bstate0 0 ex_boxes = [(624, true); (938, true)] /\
  boundaries false None bstate0 0 ex_boxes_sidx = [(688, false); (978, false)] /\
  boundaries true None bstate0 0 (skipn 3 ex_boxes_sidx) = [(0, false); (150, false); (290, false)] /\
  match assemble (mkOpts false false) ex_boxes_sidx with
  | Ok f => map sg_start (f_segs f) = [688; 978]
  | _ => False
  end.
Proof. vm_compute. repeat split; reflexivity. Qed.

Example C12_example_tiles :
  match assemble (mkOpts false false) ex_boxes with
  | Ok f =>
      match update_sidx f true true 10 with
      | Ok f' =>
          match f_sidxs f', encode_segment_mode f' with
          | [sx], Ok out =>
              map (fun r => (r_size r, r_dur r)) (b_refs (sx_box sx)) = [(314, 60); (184, 42)] /\
              b_ept (sx_box sx) = 7 /\ b_refid (sx_box sx) = 2 /\
              anchor_in_output f' sx = 688 /\ map b_tag out = [0; 1; 10; 2; 3; 4; 5; 6; 7; 8; 9] /\
              sizes_of out = 688 + 314 + 184
          | _, _ => False
          end
      | _ => False
      end
  | _ => False
  end.
Proof. vm_compute. repeat split; reflexivity. Qed.

(* ftyp moov sidx styp sidx emsg moof mdat emsg moof mdat mfra, both decode flags set: satisfies every
   hypothesis of C12_reencode_identical *)
Example C12_example_reencode :
  layout_ok ok_boxes = true /\ forallb (stable ok_env) ok_boxes = true /\ doffs_ok ok_env ok_boxes = true /\
  all_ok (map (in0 ok_env) ok_boxes) /\
  exists f out, assemble (mkOpts true true) ok_boxes = Ok f /\ encode_segment_mode f = Ok out /\
                length (f_segs f) = 1%nat /\ lenN (concat (map (in0 ok_env) ok_boxes)) = 268.
Proof.
  split; [reflexivity|]. split; [vm_compute; reflexivity|]. split; [vm_compute; reflexivity|].
  split. { unfold all_ok. repeat constructor. }
  eexists. eexists. split; [vm_compute; reflexivity|]. split; [vm_compute; reflexivity|]. split; vm_compute; reflexivity.
Qed.

(* three tracks, the reference track (first video = id 7) is the LAST trak and its traf comes second / is absent *)
Example C12_example_reference_track :
  find_reference_trak [mkTrak 3 1 48000 true; mkTrak 9 2 1000 true; mkTrak 7 0 90000 true] = Ok (mkTrak 7 0 90000 true) /\
  seg_ref_dur 7 (mkSeg None 0 [] [mkFrag 0 [] (Some (mkBox KMoof 0 100 8 0 [] false [] false
                     [mkTraf 3 0 [[5; 5]] 0; mkTraf 7 0 [[10]; []; [20; 30]] 0] [] 0 0 0 0)) None;
                   mkFrag 0 [] (Some (mkBox KMoof 1 100 8 0 [] false [] false [mkTraf 9 0 [[1]] 0] [] 0 0 0 0)) None]) = 60.
Proof. split; reflexivity. Qed.

(* `styp moof mdat` exactly as the library writes them (NewStyp; CreateFragment(7, 1) + two samples, trun version 1 with a
   composition offset, data offset 124 at byte 80 of the moof): every hypothesis of C12_reencode_identical_c01 holds, each
   box is c01_plain by running C01's decoder on its bytes *)
Example C12_example_reencode_c01 :
  (forall b, In b x_boxes -> c01_box (x_inb (b_tag b))) /\
  layout_ok x_boxes = true /\ doffs_ok (c01_env x_inb x_doff) x_boxes = true /\
  all_ok (map (fun b => x_inb (b_tag b)) x_boxes) /\
  exists f out, assemble (mkOpts false false) x_boxes = Ok f /\ encode_segment_mode f = Ok out /\
                lenN (concat (map (fun b => x_inb (b_tag b)) x_boxes)) = 152.
Proof.
  split; [|split; [|split; [|split]]].
  - intros b Hb. right. cbn in Hb.
    destruct Hb as [<- | [<- | [<- | []]]]; apply c01_plain_by_compute; vm_compute; reflexivity.
  - vm_compute; reflexivity.
  - vm_compute; reflexivity.
  - cbn [x_boxes number_from map]. repeat constructor.
  - eexists _, _. split; [vm_compute; reflexivity|]. split; vm_compute; reflexivity.
Qed.

(* the same `styp moof mdat` written by the library satisfies the hypotheses of C12_partition_bytes(_pair), and C05's reader
   decodes its moof (sequence number 7, one traf) and finds the mdat header of 8 bytes *)
Example C12_example_partition_bytes :
  sized (c01_env x_inb x_doff) x_boxes /\ sumN (map b_size x_boxes) = 152 /\ layout_ok x_boxes = true /\
  (exists body, C05SegCodecModel.next_box x_moof = Ok (C05SegCodecModel.T_MOOF, 116, 8, body, []) /\
     match C05SegCodecModel.dec_top_box C05SegCodecModel.T_MOOF 116 8 body with
     | Ok (C05SegCodecModel.BMoof 116 m) => C05SegCodecModel.dm_seq m = Some 7 /\ length (C05SegCodecModel.dm_trafs m) = 1%nat
     | _ => False
     end) /\
  (exists body, C05SegCodecModel.next_box x_mdat = Ok (C05SegCodecModel.T_MDAT, 16, 8, body, []) /\ body = [1; 2; 3; 0; 1; 2; 3; 1]).
Proof.
  split; [repeat constructor|]. split; [reflexivity|]. split; [reflexivity|]. split.
  - eexists. split; [vm_compute; reflexivity|]. vm_compute. split; reflexivity.
  - eexists. split; vm_compute; reflexivity.
Qed.

(* `styp moof mdat` at position 100 behind an init segment, moof/mdat = C05's witness fragment: all hypotheses of
   C12_c05_segment_decode hold; the one fragment has its moof at 124 and its payload at 232 *)
Example C12_example_c05 :
  C05SegModel.head_ok sim_head = true /\ forallb C05SegProofs.item_kinds sim_its = true /\
  map (to_tbox sim_trafs sim_payload) sim_boxes = C05SegModel.seg_stream sim_head sim_its /\
  forallb seg_kind sim_boxes = true /\ Forall (mdat_ok sim_payload) sim_boxes /\ positions_ok sim_pos 100 sim_boxes /\
  exists f, decode_loop (file0 true) 100 None sim_boxes = Ok f /\
            C05SegModel.file_frags (view sim_trafs sim_payload sim_pos f) =
              [C05SegModel.mkDfr (Some (124, sim_trafs 0)) (Some (232, [7]))].
Proof.
  split; [reflexivity|]. split; [reflexivity|]. split; [vm_compute; reflexivity|]. split; [reflexivity|].
  split; [repeat constructor; cbn; intros; try discriminate; reflexivity|]. split; [cbn; auto|].
  eexists. split; [vm_compute; reflexivity|]. vm_compute. reflexivity.
Qed.
