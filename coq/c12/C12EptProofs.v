(* C12EptProofs.v — what UpdateSidx writes as earliest_presentation_time (repo commit 48b8dea): the
   presentation time (tfdt base time of its traf + its composition offset, as uint64) of the first sample
   of the reference track in the first segment, whichever fragment, track fragment and trun hold it. *)
From V.lib Require Import Base.
From V.c12 Require Import C12Model C12Spec C12PartProofs C12EncProofs C12Sidx C12SidxProofs.

Definition frag_trafs (fr : fragment) : list traf :=
  match fr_moof fr with Some m => b_trafs m | None => [] end.

(* the trafs of track `id` in a segment, in stream order *)
Definition ref_trafs (id : N) (s : segment) : list traf :=
  filter (fun t => t_track t =? id) (concat (map frag_trafs (sg_frags s))).

Definition pt_of (base : N) (cto : Z) : N := Z.to_N ((Z.of_N base + cto) mod two64).

(* the first traf of the track that holds a sample decides; a track without any sample in the segment
   has the base time of its first traf (offset 0); a segment without the track has 0 *)
Definition seg_pt (id : N) (s : segment) : N :=
  match find traf_has_sample (ref_trafs id s) with
  | Some t => pt_of (t_base t) (t_cto0 t)
  | None => match ref_trafs id s with t :: _ => pt_of (t_base t) 0 | [] => 0 end
  end.

(* the nested loops are one pass over the trafs of the segment in stream order *)
Lemma frags_step_r_flat wrap id frs : forall a a',
  frags_step_r wrap id a frs = Ok a' ->
  a' = fold_left (traf_step_r wrap id) (concat (map frag_trafs frs)) a.
Proof.
  induction frs as [|fr t IH]; intros a a'; cbn [frags_step_r map concat].
  - intros [= <-]. reflexivity.
  - unfold frag_trafs at 1. destruct (fr_moof fr); [|discriminate]. rewrite fold_left_app. apply IH.
Qed.

(* Base time and offset after a pass: once the first sample has been seen (haveFirstSample) they stay; until then
   the first traf of the track with a sample sets both, and failing that the base time is that of the first traf of
   the track met since haveBaseTime was false. *)
Lemma fold_time wrap id ts : forall a,
  (a_first a = true -> a_seen a = true) ->                (* haveFirstSample implies haveBaseTime *)
  let a' := fold_left (traf_step_r wrap id) ts a in
  let rts := filter (fun t => t_track t =? id) ts in
  if a_first a then a_first a' = true /\ a_base a' = a_base a /\ a_cto a' = a_cto a
  else match find traf_has_sample rts with
       | Some t => a_first a' = true /\ a_base a' = t_base t /\ a_cto a' = t_cto0 t
       | None => a_first a' = false /\ a_cto a' = a_cto a /\
                 a_base a' = if a_seen a then a_base a else match rts with t :: _ => t_base t | [] => a_base a end
       end.
Proof.
  induction ts as [|t r IH]; intros a W; cbn zeta.
  - cbn. destruct (a_first a); auto. destruct (a_seen a); auto.
  - cbn [fold_left filter]. specialize (IH (traf_step_r wrap id a t)). cbn zeta in IH.
    remember (traf_step_r wrap id a t) as a1 eqn:E1. unfold traf_step_r in E1.
    destruct (t_track t =? id); subst a1; [|exact (IH W)]. cbn [a_first a_base a_cto a_seen find] in *. specialize (IH (fun _ => eq_refl)).
    destruct (a_first a); cbn [negb andb orb] in *; [rewrite (W eq_refl) in *; exact IH|].
    destruct (traf_has_sample t); cbn [negb andb orb] in *; [exact IH|].
    destruct (find traf_has_sample (filter (fun t => t_track t =? id) r)); [exact IH|].
    destruct (a_seen a); exact IH.
Qed.

Lemma seg_data_of_pt id s d : seg_data_of id s = Ok d -> sd_pt d = seg_pt id s.
Proof.
  unfold seg_data_of, frags_step.
  destruct (frags_step_r u64 id acc0 (sg_frags s)) as [a| | |] eqn:E; cbn [rbind]; try discriminate.
  destruct (MAX_REF_SIZE <? u64 (seg_size s)); [discriminate|].
  destruct (MAX_REF_DUR <? a_dur a); [discriminate|].
  intros [= <-]. cbn [sd_pt]. apply frags_step_r_flat in E. subst a.
  pose proof (fold_time u64 id (concat (map frag_trafs (sg_frags s))) acc0 (fun H => H)) as H. cbn zeta in H. cbn [acc0 a_first a_seen a_base a_cto] in H.
  unfold seg_pt, ref_trafs, pt_of.
  destruct (find traf_has_sample (filter (fun t => t_track t =? id) (concat (map frag_trafs (sg_frags s))))) as [t|].
  - destruct H as (_ & -> & ->). reflexivity.
  - destruct H as (_ & -> & ->). destruct (filter _ _); reflexivity.
Qed.

(* the witnesses of C12_sidx_ept_pinned_refuted (the text before 48b8dea):
   ftyp moov(video 1, audio 2) styp moof(audio only) mdat moof(video: base 90000, first sample offset 3000) mdat:
   the first fragment lacks the reference track; and one fragment whose first trun is empty *)
Definition e_moov : topbox :=
  mkBox KMoov 0 600 8 0 [] true [] false [] [mkTrak 1 0 90000 true; mkTrak 2 1 48000 true] 0 0 0 0.
Definition e_moof (trafs : list traf) : topbox := mkBox KMoof 0 100 8 0 [] false [] false trafs [] 0 0 0 0.
Definition e_late : list topbox :=
  number_from 0 [px KFtyp 24; e_moov; px KStyp 24; e_moof [mkTraf 2 5000 [[1000]] 0]; px KMdat 12;
                 e_moof [mkTraf 1 90000 [[1000; 1000]] 3000]; px KMdat 16].
Definition e_trun2 : list topbox :=
  number_from 0 [px KFtyp 24; e_moov; px KStyp 24; e_moof [mkTraf 1 90000 [[]; [1000; 1000]] 3000]; px KMdat 16].
Definition e_neg : list topbox :=
  number_from 0 [px KFtyp 24; e_moov; px KStyp 24; e_moof [mkTraf 2 0 [[1000]] 0; mkTraf 1 90000 [[1000]] (-3000)]; px KMdat 16].

Definition ept_of (r : res file) : option N :=
  match r with
  | Ok f' => match f_sidxs f' with sx :: _ => Some (b_ept (sx_box sx)) | [] => None end
  | _ => None
  end.

