(* C12ShapeProofs.v — every fragment built by DecodeFile has the shape emsg* [moof [mdat] emsg*]:
   at most one moof, at most one mdat, the mdat directly after its moof. *)
From V.lib Require Import Base.
From V.c12 Require Import C12Model C12Spec C12PartProofs C12EncProofs.

Definition seg_shape (s : segment) : Prop := Forall frag_shape (sg_frags s).
Definition file_shape (f : file) : Prop := Forall seg_shape (f_segs f).

(* after a moof the current fragment ends with that moof and has no mdat yet *)
Definition after_moof (f : file) : Prop :=
  exists s fr es1 m, last_opt (f_segs f) = Some s /\ last_opt (sg_frags s) = Some fr /\
    all_emsg es1 = true /\ fr_children fr = es1 ++ [m] /\ fr_moof fr = Some m /\ fr_mdat fr = None /\ b_kind m = KMoof.

Definition linv (f : file) (last : option kind) : Prop :=
  file_shape f /\ (last = Some KMoof -> after_moof f).

Lemma all_emsg_snoc es b : all_emsg es = true -> b_kind b = KEmsg -> all_emsg (es ++ [b]) = true.
Proof. intros H K. unfold all_emsg in *. rewrite forallb_app, H. cbn. rewrite K. reflexivity. Qed.

Lemma shape_new pos : frag_shape (new_fragment pos).
Proof. exists [], []. cbn. auto. Qed.

Lemma shape_add_emsg fr b : frag_shape fr -> b_kind b = KEmsg -> frag_shape (frag_add_child fr b).
Proof.
  intros (es1 & es2 & H1 & H2 & H) K. unfold frag_shape, frag_add_child. rewrite K. cbn [fr_moof fr_mdat fr_children].
  destruct (fr_moof fr) as [m|], (fr_mdat fr) as [d|].
  - destruct H as (Hc & Km & Kd). exists es1, (es2 ++ [b]). rewrite Hc, <- app_assoc. cbn [app].
    repeat split; auto using all_emsg_snoc.
  - destruct H as (Hc & Km). exists es1, (es2 ++ [b]). rewrite Hc, <- app_assoc. cbn [app].
    repeat split; auto using all_emsg_snoc.
  - contradiction.
  - destruct H as (Hc & ->). exists (es1 ++ [b]), []. rewrite Hc. repeat split; auto using all_emsg_snoc.
Qed.

Lemma shape_add_moof fr b :
  frag_shape fr -> fr_moof fr = None -> b_kind b = KMoof ->
  frag_shape (frag_add_child fr b) /\
  exists es1, all_emsg es1 = true /\ fr_children (frag_add_child fr b) = es1 ++ [b] /\
              fr_moof (frag_add_child fr b) = Some b /\ fr_mdat (frag_add_child fr b) = None.
Proof.
  intros (es1 & es2 & H1 & H2 & H) M K. unfold frag_shape, frag_add_child. rewrite K. cbn [fr_moof fr_mdat fr_children].
  rewrite M in H. destruct (fr_mdat fr) as [d|]; [contradiction|]. destruct H as (Hc & ->).
  split.
  - exists es1, []. rewrite Hc. repeat split; auto.
  - exists es1. rewrite Hc. auto.
Qed.

Lemma file_shape_started f pos : file_shape f -> file_shape (started f pos).
Proof.
  intros H. destruct (started_cases f pos) as [-> | ->]; [exact H|].
  apply Forall_app. split; [exact H|]. repeat constructor.
Qed.

(* the fragment the box goes into is well-shaped, and if it still is with the box, so is the file *)
Lemma pushed_shape f opens pos b f' :
  pushed f opens pos b f' -> file_shape f ->
  exists s fr,
    last_opt (f_segs f) = Some s /\ (if opens s then fr = new_fragment pos else last_opt (sg_frags s) = Some fr) /\
    frag_shape fr /\
    (frag_shape (frag_add_child fr b) -> file_shape f') /\
    exists s', last_opt (f_segs f') = Some s' /\ last_opt (sg_frags s') = Some (frag_add_child fr b).
Proof.
  intros (segs & s & frs & fr & Es & H & ->) Hf. exists s, fr. unfold file_shape in *. cbn [set_segs f_segs].
  rewrite Es in *. rewrite !last_opt_snoc. apply Forall_app in Hf. destruct Hf as [Hsegs Hs]. apply Forall_inv in Hs. unfold seg_shape in Hs.
  assert (Hfr : Forall frag_shape frs /\ frag_shape fr /\
                if opens s then fr = new_fragment pos else last_opt (sg_frags s) = Some fr).
  { destruct (opens s).
    - destruct H as [-> ->]. auto using shape_new.
    - rewrite H in *. apply Forall_app in Hs. rewrite last_opt_snoc. split; [apply Hs|]. split; [exact (Forall_inv (proj2 Hs))|reflexivity]. }
  destruct Hfr as (F1 & F2 & F3). repeat split; auto.
  - intros F. apply Forall_app. split; [exact Hsegs|]. constructor; [|constructor]. apply Forall_app. split; [exact F1|]. constructor; [exact F|constructor].
  - eexists. split; [reflexivity|]. apply last_opt_snoc.
Qed.

Lemma step_shape f b pos last f' :
  linv f last ->
  (kind_eqb (b_kind b) KMdat && negb (mdat_check f b last)) = false ->
  add_child_switch f b pos = Ok f' ->
  linv f' (Some (b_kind b)).
Proof.
  intros [HS HA] Hchk A. apply add_child_switch_inv in A. unfold linv. destruct (b_kind b) eqn:K.
  - subst f'. split; [exact HS|discriminate].
  - subst f'. split; [|discriminate]. apply Forall_app. split; [exact HS|]. repeat constructor.
  - subst f'. destruct (b_stts_empty b); (split; [exact HS|discriminate]).
  - split; [|discriminate]. destruct A as [[_ ->] | (segs & s & Es & ->)]; [exact HS|].
    unfold file_shape in *. cbn [set_segs f_segs]. rewrite Es in HS. apply Forall_app in HS. destruct HS as [H1 H2].
    apply Forall_app. split; [exact H1|]. constructor; [exact (Forall_inv H2)|constructor].
  - (* moof *)
    destruct (pushed_shape _ _ _ _ _ A (file_shape_started (set_fragmented f) pos HS)) as (s & fr & L & Hfr & Sh & Hf & s' & L1 & L2).
    assert (M : fr_moof fr = None).
    { unfold moof_opens in Hfr. destruct (last_opt (sg_frags s)) as [lf|].
      - destruct (fr_moof lf) eqn:E; cbn [is_some] in Hfr; [rewrite Hfr; reflexivity|]. injection Hfr as <-. exact E.
      - rewrite Hfr. reflexivity. }
    destruct (shape_add_moof fr b Sh M K) as (Sh' & es1 & E1 & E2 & E3 & E4).
    split; [exact (Hf Sh')|]. intros _. exists s', (frag_add_child fr b), es1, b. auto 10.
  - (* mdat *)
    cbn [kind_eqb andb] in Hchk. apply negb_false_iff in Hchk. unfold mdat_check in Hchk.
    destruct (f_fragmented f).
    + destruct last as [[]|]; try discriminate.
      destruct (HA eq_refl) as (s0 & fr0 & es1 & m & L0 & Lf0 & E1 & E2 & E3 & E4 & Km).
      destruct (pushed_shape _ _ _ _ _ A HS) as (s & fr & L & Hfr & Sh & Hf & _).
      rewrite L0 in L. injection L as <-. rewrite Lf0 in Hfr. injection Hfr as <-.
      split; [|discriminate]. apply Hf.
      exists es1, []. unfold frag_add_child. rewrite K. cbn [fr_moof fr_mdat fr_children]. rewrite E3, E2, <- app_assoc.
      cbn [app]. repeat split; auto.
    + split; [|discriminate]. subst f'. clear Hchk. destruct (match f_mdat f with Some _ => _ | None => _ end); exact HS.
  - (* emsg *)
    destruct (pushed_shape _ _ _ _ _ A (file_shape_started f pos HS)) as (s & fr & _ & _ & Sh & Hf & _).
    split; [|discriminate]. apply Hf, shape_add_emsg; assumption.
  - subst f'. split; [exact HS|discriminate].
  - subst f'. split; [exact HS|discriminate].
Qed.

Lemma decode_loop_shape bs : forall f pos last f',
  linv f last -> decode_loop f pos last bs = Ok f' -> file_shape f'.
Proof.
  induction bs as [|b t IH]; intros f pos last f' HL.
  - cbn. intros [= <-]. exact (proj1 HL).
  - cbn [decode_loop]. destruct (kind_eqb (b_kind b) KMdat && negb (mdat_check f b last)) eqn:C; [discriminate|].
    destruct (add_child f b pos) as [f1| | |] eqn:A; cbn [rbind]; try discriminate.
    apply IH. destruct (add_child_inv _ _ _ _ A) as (f2 & A2 & ->). exact (step_shape _ _ _ _ _ HL C A2).
Qed.

Lemma fragment_shape o bs f :
  assemble o bs = Ok f -> Forall (fun s => Forall frag_shape (sg_frags s)) (f_segs f).
Proof.
  intros H. destruct (assemble_inv _ _ _ H) as (tf & f0 & _ & D & ->).
  apply decode_loop_shape in D; [exact D|].
  split; [constructor|discriminate].
Qed.

Lemma frag_shape_in o bs f s fr :
  assemble o bs = Ok f -> In s (f_segs f) -> In fr (sg_frags s) -> frag_shape fr.
Proof.
  intros A Hs Hfr. exact (proj1 (Forall_forall _ _) (proj1 (Forall_forall _ _) (fragment_shape _ _ _ A) s Hs) fr Hfr).
Qed.
