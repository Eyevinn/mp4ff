(* C12SegBytesProofs.v — from the byte stream to the segment partition.  The stream is the concatenation of the
   bytes of the top-level boxes (each as long as its Size()); for a layout of C12Bytes.layout_ok the assembly's
   StartPos values are BYTE OFFSETS into that stream, the stream splits at them into the segments and their
   fragments, and the box that C05's byte-level reader (coq/c05 C05SegCodecModel.next_box / dec_top_box,
   read-only) decodes at the offset of a fragment's child is that child. *)
From V.lib Require Import Base.
From V.c05 Require Import C05CodecModel.
From V.c05 Require C05SegCodecModel.
From V.c02 Require Import C02AggModel C02AggScanProofs.
From V.c12 Require Import C12Model C12Spec C12PartProofs C12EncProofs C12Sidx C12SidxProofs C12Bytes C12BytesProofs C12PosProofs.

(* what it decodes from the bytes of one whole box it decodes from any stream that starts with these bytes *)
Lemma dec_header_local x tail ty sz hl l1 :
  C05SegCodecModel.dec_header x = Ok (ty, sz, hl, l1) ->
  C05SegCodecModel.dec_header (x ++ tail) = Ok (ty, sz, hl, l1 ++ tail).
Proof.
  unfold C05SegCodecModel.dec_header. destruct (rd32 x) as [[s l]|] eqn:E1; [|discriminate].
  rewrite (rd32_app _ tail _ _ E1). destruct l as [|a [|b [|c [|d l2]]]]; try discriminate. cbn [app].
  destruct (s =? 1).
  - destruct (rd64 l2) as [[big l3]|] eqn:E2; [|discriminate]. rewrite (rd64_app _ tail _ _ E2).
    destruct (big <? 16); [discriminate|]. intros [= <- <- <- <-]. reflexivity.
  - destruct (s =? 0); [discriminate|]. destruct (s <? 8); [discriminate|]. intros [= <- <- <- <-]. reflexivity.
Qed.

(* a body that is exactly the rest of the box is cut off in front of whatever follows *)
Lemma take_local (l tail : list N) n :
  lenN l <? n = false -> skipn (N.to_nat n) l = [] ->
  lenN (l ++ tail) <? n = false /\ firstn (N.to_nat n) (l ++ tail) = firstn (N.to_nat n) l /\ skipn (N.to_nat n) (l ++ tail) = tail.
Proof.
  intros Hn Hk. apply N.ltb_ge in Hn. apply (f_equal (@length N)) in Hk. rewrite skipn_length in Hk. unfold lenN in *.
  assert (Hl : N.to_nat n = length l) by (cbn [length] in Hk; lia). rewrite Hl.
  rewrite firstn_app, skipn_app, Nat.sub_diag, firstn_all, skipn_all, app_nil_r. repeat split.
  apply N.ltb_ge. rewrite app_length. lia.
Qed.

Lemma next_box_local x tail ty sz hl body :
  C05SegCodecModel.next_box x = Ok (ty, sz, hl, body, []) ->
  C05SegCodecModel.next_box (x ++ tail) = Ok (ty, sz, hl, body, tail).
Proof.
  unfold C05SegCodecModel.next_box.
  destruct (C05SegCodecModel.dec_header x) as [[[[t s] h] l1]| | |] eqn:E; cbn [rbind]; try discriminate.
  rewrite (dec_header_local _ tail _ _ _ _ E). cbn [rbind].
  destruct (lenN l1 <? s - h) eqn:Hn; [discriminate|]. intros [= <- <- <- <- Hk].
  destruct (take_local l1 tail _ Hn Hk) as (L & F & S). rewrite L, F, S. reflexivity.
Qed.

Section Env.
Variable env : N -> binfo.

Definition bytes_of (l : list topbox) : list N := concat (map (in0 env) l).
Definition sized (l : list topbox) : Prop := Forall (fun b => lenN (in0 env b) = b_size b) l.

Lemma bytes_of_app a b : bytes_of (a ++ b) = bytes_of a ++ bytes_of b.
Proof. unfold bytes_of. rewrite map_app, concat_app. reflexivity. Qed.

Lemma lenN_bytes_of l : sized l -> lenN (bytes_of l) = sumN (map b_size l).
Proof.
  induction 1 as [|b l Hb _ IH]; [reflexivity|].
  unfold bytes_of in *. cbn [map concat sumN]. rewrite lenN_app, IH, Hb. reflexivity.
Qed.

Lemma skipn_lenN {A} (a b : list A) : skipn (N.to_nat (lenN a)) (a ++ b) = b.
Proof.
  unfold lenN. rewrite Nat2N.id. rewrite skipn_app, skipn_all, Nat.sub_diag. reflexivity.
Qed.

(* a prefix of a stream that does not wrap: the loop's running position is the byte offset *)
Lemma located bs pre rest :
  bs = pre ++ rest -> sized bs -> sumN (map b_size bs) < M64 ->
  posn pre = lenN (bytes_of pre) /\ skipn (N.to_nat (lenN (bytes_of pre))) (bytes_of bs) = bytes_of rest.
Proof.
  intros -> Hs Hlt. apply Forall_app in Hs. destruct Hs as [Hp _].
  rewrite map_app, sumN_app in Hlt. split.
  - rewrite (lenN_bytes_of _ Hp). apply posn_small. eapply N.le_lt_trans; [|exact Hlt]. apply N.le_add_r.
  - rewrite bytes_of_app. apply skipn_lenN.
Qed.

(* the box c behind the boxes pre ++ l, when pre ends at byte offset p: c lies at p + the sizes of l *)
Lemma box_at bs pre l c rest p :
  bs = pre ++ l ++ c :: rest -> sized bs -> sumN (map b_size bs) < M64 -> p = lenN (bytes_of pre) ->
  let off := p + sumN (map b_size l) in
  skipn (N.to_nat off) (bytes_of bs) = in0 env c ++ bytes_of rest /\
  forall ty sz hl body,
    C05SegCodecModel.next_box (in0 env c) = Ok (ty, sz, hl, body, []) ->
    C05SegCodecModel.next_box (skipn (N.to_nat off) (bytes_of bs)) = Ok (ty, sz, hl, body, bytes_of rest).
Proof.
  intros E Hs Hlt ->. cbn zeta. rewrite app_assoc in E.
  assert (Hl : sized l) by (rewrite E in Hs; apply Forall_app in Hs; destruct Hs as [Hs _]; apply Forall_app in Hs; apply Hs).
  rewrite <- (lenN_bytes_of _ Hl), <- lenN_app, <- bytes_of_app, (proj2 (located _ _ _ E Hs Hlt)).
  change (bytes_of (c :: rest)) with (in0 env c ++ bytes_of rest). split; [reflexivity|].
  intros ty sz hl body Hn. apply next_box_local. exact Hn.
Qed.
End Env.

Lemma split_nth {A} (l : list A) : forall n x, nth_error l n = Some x -> l = firstn n l ++ x :: skipn (S n) l.
Proof.
  induction l as [|a t IH]; intros [|n] x H; try discriminate.
  - injection H as <-. reflexivity.
  - cbn [nth_error] in H. cbn [firstn skipn app]. f_equal. exact (IH _ _ H).
Qed.

Lemma concat_map_nth {A B} (g : A -> list B) l i x :
  nth_error l i = Some x -> concat (map g l) = concat (map g (firstn i l)) ++ g x ++ concat (map g (skipn (S i) l)).
Proof. intros H. rewrite (split_nth _ _ _ H) at 1. rewrite concat_map_app. reflexivity. Qed.
