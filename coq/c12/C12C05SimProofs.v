(* C12C05SimProofs.v — C12's assembly model and C05's segment decoder (coq/c05 C05SegModel, read-only) are two
   models of the same Go text (DecodeFile's loop + File.AddChild + startSegmentIfNeeded) over different box types.
   Here: an abstraction of C12's top-level boxes to C05's (to_tbox), a view of C12's file as C05's decoder state,
   and the simulation (sim_loop): for the default decode flags, whenever C12's decode_loop succeeds on a stream of
   styp/sidx/emsg/moof/mdat/other boxes, C05's seg_decode_loop on the abstracted stream succeeds with the view of
   C12's result. *)
From V.lib Require Import Base.
From V.c05 Require C05Model C05FragModel C05SegModel C05SegProofs C05SidxProofs.
From V.c12 Require Import C12Model C12Spec C12PartProofs C12Sidx C12SidxProofs.

Module S5 := C05SegModel.

Section Sim.
Variable trafs_of : N -> list C05FragModel.traf.   (* by tag: the trafs DecodeMoof holds for that moof *)
Variable payload_of : N -> list N.                  (* by tag: the payload of that mdat *)
Variable mpos : N -> N.                             (* by tag: where that box lies in the stream *)

Definition cv_ref (r : sref) : S5.sref := S5.mkSref (r_type r) (r_size r).

Definition seg_kind (b : topbox) : bool :=
  match b_kind b with KStyp | KSidx | KEmsg | KMoof | KMdat | KOther => true | _ => false end.

Definition to_tbox (b : topbox) : S5.tbox :=
  match b_kind b with
  | KStyp => S5.TX (S5.mkX S5.XStyp (b_size b) 0 [])
  | KSidx => S5.TX (S5.mkX S5.XSidx (b_size b) (b_first_offset b) (map cv_ref (b_refs b)))
  | KEmsg => S5.TX (S5.mkX S5.XEmsg (b_size b) 0 [])
  | KMoof => S5.TMoof (b_size b) (trafs_of (b_tag b))
  | KMdat => S5.TMdat (b_hdr b) (payload_of (b_tag b))
  | _ => S5.TX (S5.mkX S5.XOther (b_size b) 0 [])
  end.

(* an mdat's Size() is its header plus its payload *)
Definition mdat_ok (b : topbox) : Prop :=
  b_kind b = KMdat -> b_hdr b + lenN (payload_of (b_tag b)) = b_size b.

Lemma tb_size_to_tbox b : mdat_ok b -> S5.tb_size (to_tbox b) = b_size b.
Proof. intros H. unfold to_tbox, mdat_ok in *. destruct (b_kind b); cbn; auto. Qed.

Lemma mdat_payload_ok b : mdat_ok b -> b_kind b = KMdat -> mdat_payload b = lenN (payload_of (b_tag b)).
Proof. intros H K. unfold mdat_payload. specialize (H K). lia. Qed.

Definition vfrag (fr : fragment) : S5.dfr :=
  S5.mkDfr (option_map (fun m => (mpos (b_tag m), trafs_of (b_tag m))) (fr_moof fr))
           (option_map (fun d => (mpos (b_tag d) + b_hdr d, payload_of (b_tag d))) (fr_mdat fr)).
Definition vseg (s : segment) : S5.dseg := S5.mkDseg (is_some (sg_styp s)) (rev (map vfrag (sg_frags s))).
Definition vsidx (sx : sidx) : N * list S5.sref := (sx_anchor sx, map cv_ref (b_refs (sx_box sx))).
Definition view (f : file) : S5.fstate :=
  S5.mkFstate (f_fragmented f) (map vsidx (f_sidxs f)) (rev (map vseg (f_segs f)))
              (option_map (fun m => lenN (payload_of (b_tag m))) (f_mdat f)).

(* default decode flags: no tfra, no start-on-moof; a File.Mdat is an mdat whose payload is known *)
Definition plain (f : file) : Prop :=
  f_tfra f = None /\ f_start_on_moof f = false /\
  match f_mdat f with Some m => mdat_payload m = lenN (payload_of (b_tag m)) | None => True end.

Lemma rev_map_snoc {A B} (v : A -> B) l y : rev (map v (l ++ [y])) = v y :: rev (map v l).
Proof. rewrite map_app, rev_app_distr. reflexivity. Qed.

Lemma is_nil_lenN {A} (l : list A) : is_nil l = (lenN l =? 0).
Proof. destruct l; reflexivity. Qed.

Lemma view_snoc f segs s :
  f_segs f = segs ++ [s] ->
  view f = S5.mkFstate (f_fragmented f) (map vsidx (f_sidxs f)) (vseg s :: rev (map vseg segs)) (S5.fs_mdat (view f)).
Proof. intros E. unfold view. rewrite E, rev_map_snoc. reflexivity. Qed.

Lemma scan_refs_cv refs : forall start idx pos seg,
  S5.scan_refs (map cv_ref refs) start idx pos seg = scan_refs refs start idx pos seg.
Proof.
  induction refs as [|r t IH]; intros; [reflexivity|]. cbn [map S5.scan_refs scan_refs cv_ref S5.sr_type S5.sr_size].
  destruct (r_type r =? 1); [reflexivity|]. destruct ((pos =? start) && (idx =? seg)); [reflexivity|]. apply IH.
Qed.

Lemma scan_sidxs_cv sxs : forall idx pos seg,
  S5.scan_sidxs (map vsidx sxs) idx pos seg = scan_sidxs sxs idx pos seg.
Proof.
  induction sxs as [|sx t IH]; intros; [reflexivity|]. cbn [map S5.scan_sidxs scan_sidxs vsidx].
  rewrite scan_refs_cv. destruct (scan_refs (b_refs (sx_box sx)) (sx_anchor sx) idx pos seg) as [found idx'].
  destruct found; [reflexivity|]. apply IH.
Qed.

Lemma view_started f pos :
  f_tfra f = None -> f_start_on_moof f = false -> view (started f pos) = S5.start_if_needed (view f) pos.
Proof.
  intros Ht Hm. unfold started, S5.start_if_needed, seg_start, seg_start_switch. rewrite Ht, Hm.
  assert (Es : lenN (S5.fs_segs (view f)) = lenN (f_segs f))
    by (unfold view, lenN; cbn [S5.fs_segs]; rewrite rev_length, map_length; reflexivity).
  rewrite Es, (is_nil_lenN (f_segs f)).
  assert (E : (match S5.fs_sidxs (view f) with
               | [] => lenN (f_segs f) =? 0
               | x :: r => S5.scan_sidxs (x :: r) 0 pos (lenN (f_segs f))
               end) = (if negb (is_nil (f_sidxs f)) then scan_sidxs (f_sidxs f) 0 pos (lenN (f_segs f)) else lenN (f_segs f) =? 0)).
  { unfold view. cbn [S5.fs_sidxs]. destruct (f_sidxs f) as [|sx rest]; [reflexivity|]. cbn [is_nil negb]. rewrite <- scan_sidxs_cv. reflexivity. }
  rewrite E. destruct (_ || _); [|reflexivity].
  unfold view, add_segment. cbn [f_fragmented f_sidxs f_segs f_mdat]. rewrite rev_map_snoc. reflexivity.
Qed.

Lemma plain_started f pos : plain f -> plain (started f pos).
Proof. intros H. destruct (started_cases f pos) as [-> | ->]; exact H. Qed.

Definition last_moof (last : option kind) : bool := match last with Some KMoof => true | _ => false end.

(* the C05 state before and after the box went into the last fragment of the last segment *)
Lemma view_pushed f opens pos b f' :
  pushed f opens pos b f' ->
  exists s frs fr rest,
    (if opens s then frs = sg_frags s /\ fr = new_fragment pos else sg_frags s = frs ++ [fr]) /\
    view f = S5.mkFstate (f_fragmented f) (S5.fs_sidxs (view f)) (vseg s :: rest) (S5.fs_mdat (view f)) /\
    view f' = S5.mkFstate (f_fragmented f) (S5.fs_sidxs (view f))
                (S5.mkDseg (is_some (sg_styp s)) (vfrag (frag_add_child fr b) :: rev (map vfrag frs)) :: rest) (S5.fs_mdat (view f)).
Proof.
  intros (segs & s & frs & fr & Es & H & ->). exists s, frs, fr, (rev (map vseg segs)).
  split; [exact H|]. split; [exact (view_snoc _ _ _ Es)|].
  rewrite (view_snoc (set_segs f _) segs _ eq_refl). unfold vseg at 1. cbn [with_frags sg_styp sg_frags]. rewrite rev_map_snoc. reflexivity.
Qed.

Lemma sim_step f b pos last f' :
  plain f -> seg_kind b = true -> mdat_ok b -> mpos (b_tag b) = pos ->
  (kind_eqb (b_kind b) KMdat && negb (mdat_check f b last)) = false ->
  add_child f b pos = Ok f' ->
  S5.add_box (view f) pos (to_tbox b) (last_moof last) = Ok (view f') /\ plain f'.
Proof.
  intros Pl Hk Hmd Hp Hc A. destruct (add_child_inv _ _ _ _ A) as (f1 & A1 & ->).
  change (S5.add_box (view f) pos (to_tbox b) (last_moof last) = Ok (view f1) /\ plain f1). clear A.
  apply add_child_switch_inv in A1. rename A1 into P. pose proof Pl as (Ht & Hm & Hd).
  unfold to_tbox, seg_kind in *. destruct (b_kind b) eqn:K; try discriminate.
  - (* styp *)
    subst f1. split; [|exact Pl]. unfold view, add_segment. cbn [f_fragmented f_sidxs f_segs f_mdat]. rewrite rev_map_snoc. reflexivity.
  - (* sidx *)
    cbn [S5.add_box S5.x_kind S5.x_first S5.x_size S5.x_refs].
    destruct P as [[Es ->] | (segs & s & Es & ->)]; (split; [|exact Pl]); unfold view;
      cbn [set_segs f_fragmented f_sidxs f_segs f_mdat S5.fs_segs S5.fs_fragmented S5.fs_sidxs S5.fs_mdat]; rewrite Es.
    + rewrite map_app. reflexivity.
    + rewrite !rev_map_snoc. reflexivity.
  - (* moof *)
    destruct (view_pushed _ _ _ _ _ P) as (s & frs & fr & rest & H & V & ->).
    split; [|destruct (pushed_top _ _ _ _ _ P) as [? ->]; exact (plain_started (set_fragmented f) pos Pl)].
    cbn [S5.add_box]. change (S5.mkFstate true _ _ _) with (view (set_fragmented f)).
    rewrite <- (view_started (set_fragmented f) pos Ht Hm), V. unfold S5.upd_last_seg. cbn [S5.fs_segs S5.fs_fragmented S5.fs_sidxs S5.fs_mdat].
    do 3 f_equal. unfold vseg. cbn [S5.dg_frags S5.dg_styp].
    assert (Vf : vfrag (frag_add_child fr b) = S5.mkDfr (Some (pos, trafs_of (b_tag b))) (S5.dr_mdat (vfrag fr))).
    { unfold frag_add_child. rewrite K. unfold vfrag. cbn [fr_moof fr_mdat option_map S5.dr_mdat]. rewrite Hp. reflexivity. }
    rewrite Vf. unfold moof_opens in H. destruct (sg_frags s) as [|lf frs0 _] using rev_ind.
    + destruct H as [-> ->]. reflexivity.
    + rewrite last_opt_snoc in H. rewrite rev_map_snoc. cbv beta iota.
      change (S5.dr_moof (vfrag lf)) with (option_map (fun m => (mpos (b_tag m), trafs_of (b_tag m))) (fr_moof lf)).
      destruct (fr_moof lf); cbn [is_some option_map] in *.
      * destruct H as [-> ->]. rewrite rev_map_snoc. reflexivity.
      * apply app_inj_tail in H. destruct H as [-> ->]. reflexivity.
  - (* mdat *)
    cbn [kind_eqb andb] in Hc. apply negb_false_iff in Hc. unfold mdat_check in Hc.
    cbn [S5.add_box]. unfold view at 1. cbn [S5.fs_fragmented]. destruct (f_fragmented f) eqn:Fr.
    + assert (Lm : last_moof last = true) by (unfold last_moof; destruct last as [[]|]; try discriminate; reflexivity).
      rewrite Lm. cbn [negb]. destruct (view_pushed _ _ _ _ _ P) as (s & frs & fr & rest & H & V & ->).
      split; [|destruct (pushed_top _ _ _ _ _ P) as [? ->]; exact Pl].
      fold (view f). rewrite V. cbn [S5.fs_segs S5.fs_sidxs S5.fs_mdat]. unfold vseg. rewrite H, rev_map_snoc, Fr. cbn [S5.dg_frags S5.dg_styp].
      do 5 f_equal. unfold frag_add_child. rewrite K. unfold vfrag. cbn [fr_moof fr_mdat option_map S5.dr_moof]. rewrite Hp. reflexivity.
    + pose proof (mdat_payload_ok b Hmd K) as Pb. fold (view f).
      assert (Vm : S5.fs_mdat (view f) = option_map (fun m => lenN (payload_of (b_tag m))) (f_mdat f)) by reflexivity.
      rewrite Vm. clear Vm.
      destruct (f_mdat f) as [m|] eqn:Em; cbn [option_map].
      * rewrite <- Hd, <- Pb. apply negb_true_iff in Hc. rewrite Hc. subst f1.
        destruct (mdat_payload m =? 0) eqn:Z.
        -- unfold view. cbn [f_fragmented f_sidxs f_segs f_mdat option_map S5.fs_sidxs S5.fs_segs].
           rewrite ?Fr, <- ?Pb. split; [reflexivity|]. split; [exact Ht|]. split; [exact Hm|]. exact Pb.
        -- split; [reflexivity|]. unfold plain. rewrite Em. exact (conj Ht (conj Hm Hd)).
      * subst f1. unfold view. cbn [f_fragmented f_sidxs f_segs f_mdat option_map S5.fs_sidxs S5.fs_segs].
        rewrite ?Fr. split; [reflexivity|]. split; [exact Ht|]. split; [exact Hm|]. exact Pb.
  - (* emsg *)
    destruct (view_pushed _ _ _ _ _ P) as (s & frs & fr & rest & H & V & ->).
    split; [|destruct (pushed_top _ _ _ _ _ P) as [? ->]; exact (plain_started f pos Pl)].
    cbn [S5.add_box S5.x_kind]. rewrite <- (view_started f pos Ht Hm), V. unfold S5.upd_last_seg.
    cbn [S5.fs_segs S5.fs_fragmented S5.fs_sidxs S5.fs_mdat]. do 3 f_equal. unfold vseg. cbn [S5.dg_frags S5.dg_styp].
    assert (Vf : vfrag (frag_add_child fr b) = vfrag fr) by (unfold frag_add_child; rewrite K; reflexivity).
    rewrite Vf. unfold emsg_opens in H. destruct (sg_frags s) as [|x t]; cbn [is_nil] in H.
    + destruct H as [-> ->]. reflexivity.
    + rewrite H, rev_map_snoc. reflexivity.
  - (* other *)
    subst f1. split; [reflexivity|exact Pl].
Qed.

(* where the boxes lie, without wrap-around *)
Fixpoint positions_ok (pos : N) (bs : list topbox) : Prop :=
  match bs with
  | [] => True
  | b :: t => mpos (b_tag b) = pos /\ positions_ok (pos + b_size b) t
  end.

Lemma sim_loop bs : forall f pos last f',
  plain f -> forallb seg_kind bs = true -> Forall mdat_ok bs -> positions_ok pos bs ->
  pos + sumN (map b_size bs) < M64 ->
  decode_loop f pos last bs = Ok f' ->
  S5.seg_decode_loop (map to_tbox bs) (view f) pos (last_moof last) = Ok (view f').
Proof.
  induction bs as [|b t IH]; intros f pos last f' Pl Hk Hm Hp Hlt D.
  - cbn in D. injection D as <-. reflexivity.
  - cbn [decode_loop] in D. cbn [forallb] in Hk. apply andb_true_iff in Hk. destruct Hk as [Kb Kt].
    inversion Hm as [|? ? Mb Mt]; subst. destruct Hp as [Pb Pt]. cbn [map sumN] in Hlt.
    destruct (kind_eqb (b_kind b) KMdat && negb (mdat_check f b last)) eqn:C; [discriminate|].
    destruct (add_child f b pos) as [f1| | |] eqn:A; cbn [rbind] in D; try discriminate.
    destruct (sim_step _ _ _ _ _ Pl Kb Mb Pb C A) as [S1 P1].
    cbn [map S5.seg_decode_loop]. rewrite S1. cbn [rbind]. rewrite (tb_size_to_tbox _ Mb).
    assert (Eu : u64 (pos + b_size b) = pos + b_size b) by (unfold u64; apply N.mod_small; unfold M64 in Hlt; lia).
    rewrite Eu in D.
    assert (El : S5.is_moof (to_tbox b) = last_moof (Some (b_kind b))).
    { unfold to_tbox, last_moof. destruct (b_kind b); reflexivity. }
    rewrite El. apply IH; auto. lia.
Qed.

(* the File before the first box of the media stream: nothing, or an init segment was decoded (fragmented0) *)
Definition file0 (fragmented0 : bool) : file := mkFile None None None None [] None None [] [] fragmented0 false.
End Sim.

(* `styp moof mdat` at position 100 behind an init segment, the moof/mdat being C05's witness fragment (one sample
   of one byte, moof of 100 bytes): C12's boxes, abstracted, are C05's stream of that segment *)
Definition sim_head : list S5.xbox := [S5.mkX S5.XStyp 24 0 []].
Definition sim_its : list S5.eitem := [S5.mkEitem [] C05SidxProofs.wit_fe [] [] []].
Definition sim_boxes : list topbox :=
  number_from 0 [mkBox KStyp 0 24 8 0 [] false [] false [] [] 0 0 0 0;
                 mkBox KMoof 0 100 8 0 [] false [] false [mkTraf 1 0 [[10]] 0] [] 0 0 0 0;
                 mkBox KMdat 0 9 8 0 [] false [] false [] [] 0 0 0 0].
Definition sim_trafs (_ : N) : list C05FragModel.traf := S5.wire_trafs C05SidxProofs.wit_fe.
Definition sim_payload (_ : N) : list N := [7].
Definition sim_pos (tag : N) : N := if tag =? 0 then 100 else if tag =? 1 then 124 else 224.
