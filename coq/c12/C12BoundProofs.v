(* C12BoundProofs.v — where segments start: the model's startSegmentIfNeeded / AddChild against
   the declarative boundary rules of C12Spec (sidx references / tfra entry / every moof / first only). *)
From V.lib Require Import Base.
From V.c12 Require Import C12Model C12Spec C12PartProofs.

Definition hit (l : list N) (n : nat) (pos : N) : bool :=
  match nth_error l n with Some q => pos =? q | None => false end.

(* the nested loops of startSegmentIfNeeded walk the designated starts in order, counting from idx *)
Fixpoint scan_starts (l : list N) (idx pos seg : N) : bool :=
  match l with
  | [] => false
  | q :: t => (pos =? q) && (idx =? seg) || scan_starts t (idx + 1) pos seg
  end.

Lemma scan_starts_app pos seg l r : forall idx,
  scan_starts (l ++ r) idx pos seg = scan_starts l idx pos seg || scan_starts r (idx + lenN l) pos seg.
Proof.
  induction l as [|q t IH]; intros idx; cbn [app scan_starts orb].
  - rewrite N.add_0_r. reflexivity.
  - rewrite IH, lenN_cons, orb_assoc, N.add_assoc. reflexivity.
Qed.

Lemma scan_refs_starts pos seg refs : forall start idx,
  scan_refs refs start idx pos seg =
  let l := ref_starts refs start in
  if scan_starts l idx pos seg then (true, seg) else (false, idx + lenN l).
Proof.
  induction refs as [|r t IH]; intros start idx; cbn [scan_refs ref_starts].
  - cbn. rewrite N.add_0_r. reflexivity.
  - destruct (r_type r =? 1); [cbn; rewrite N.add_0_r; reflexivity|]. cbn zeta. cbn [scan_starts].
    destruct ((pos =? start) && (idx =? seg)) eqn:E; cbn [orb].
    + apply andb_true_iff in E. destruct E as [_ E]. apply N.eqb_eq in E. subst. reflexivity.
    + rewrite IH, lenN_cons, N.add_assoc. reflexivity.
Qed.

Lemma scan_sidxs_starts pos seg sxs : forall idx,
  scan_sidxs sxs idx pos seg = scan_starts (sidx_starts sxs) idx pos seg.
Proof.
  induction sxs as [|sx t IH]; intros idx; [reflexivity|]. cbn [scan_sidxs].
  change (sidx_starts (sx :: t)) with (ref_starts (b_refs (sx_box sx)) (sx_anchor sx) ++ sidx_starts t).
  rewrite scan_refs_starts, scan_starts_app. cbn zeta.
  destruct (scan_starts (ref_starts _ _) idx pos seg); [reflexivity|apply IH].
Qed.

(* ... and find the position looked for exactly at number seg *)
Lemma scan_starts_hit pos seg l : forall idx,
  scan_starts l idx pos seg = (idx <=? seg) && hit l (N.to_nat (seg - idx)) pos.
Proof.
  induction l as [|q t IH]; intros idx; cbn [scan_starts].
  - unfold hit. destruct (N.to_nat (seg - idx)); apply eq_sym, andb_false_r.
  - rewrite IH. destruct (N.compare_spec idx seg) as [-> | Hlt | Hgt].
    + rewrite N.eqb_refl, N.leb_refl, N.sub_diag, andb_true_r. replace (seg + 1 <=? seg) with false by (symmetry; apply N.leb_gt; lia).
      apply orb_false_r.
    + replace (idx =? seg) with false by (symmetry; apply N.eqb_neq; lia). rewrite andb_false_r.
      replace (N.to_nat (seg - idx)) with (S (N.to_nat (seg - (idx + 1)))) by lia.
      replace (idx + 1 <=? seg) with true by (symmetry; apply N.leb_le; lia).
      replace (idx <=? seg) with true by (symmetry; apply N.leb_le; lia). reflexivity.
    + replace (idx =? seg) with false by (symmetry; apply N.eqb_neq; lia). rewrite andb_false_r.
      replace (idx + 1 <=? seg) with false by (symmetry; apply N.leb_gt; lia).
      replace (idx <=? seg) with false by (symmetry; apply N.leb_gt; lia). reflexivity.
Qed.

Lemma scan_sidxs_designates sxs pos k :
  scan_sidxs sxs 0 pos (N.of_nat k) = sidx_designates sxs k pos.
Proof. rewrite scan_sidxs_starts, scan_starts_hit, N.sub_0_r, Nat2N.id, (proj2 (N.leb_le 0 _) (N.le_0_l _)). reflexivity. Qed.

Definition seg_view (s : segment) : N * bool := (sg_start s, is_some (sg_styp s)).
Definition segs_view (f : file) : list (N * bool) := map seg_view (f_segs f).

(* the current fragment of a segment still waits for its moof *)
Definition seg_open (s : segment) : bool :=
  match last_opt (sg_frags s) with Some fr => negb (is_some (fr_moof fr)) | None => false end.

(* the state of the boundary rules is a function of the File *)
Definition abs (f : file) : bstate :=
  match last_opt (f_segs f) with
  | None => mkB 0 (f_sidxs f) false false false
  | Some s => mkB (length (f_segs f)) (f_sidxs f) (is_some (sg_styp s)) (negb (is_nil (sg_frags s))) (seg_open s)
  end.

Lemma is_nil_length {A} (l : list A) : is_nil l = (length l =? 0)%nat.
Proof. destruct l; reflexivity. Qed.

Lemma abs_snoc f segs s :
  f_segs f = segs ++ [s] ->
  abs f = mkB (S (length segs)) (f_sidxs f) (is_some (sg_styp s)) (negb (is_nil (sg_frags s))) (seg_open s).
Proof. intros E. unfold abs. rewrite E, last_opt_snoc, app_length, Nat.add_1_r. reflexivity. Qed.

Lemma abs_nil f : f_segs f = [] -> abs f = mkB 0 (f_sidxs f) false false false.
Proof. intros E. unfold abs. rewrite E. reflexivity. Qed.

Lemma abs_counts f : q_nseg (abs f) = length (f_segs f) /\ q_sidxs (abs f) = f_sidxs f.
Proof.
  unfold abs. pose proof (last_opt_inv (f_segs f)) as L. destruct (last_opt (f_segs f)); [auto|]. rewrite L. auto.
Qed.

Lemma seg_start_spec f pos :
  seg_start f pos = media_starts (f_start_on_moof f) (f_tfra f) (abs f) pos.
Proof.
  unfold seg_start, media_starts, seg_start_switch, designated. destruct (abs_counts f) as [-> ->].
  unfold abs, lenN, seg_open. rewrite (is_nil_length (f_segs f)).
  destruct (length (f_segs f)) as [|n] eqn:En; [apply orb_true_r|]. rewrite orb_false_r. cbn [Nat.eqb orb].
  destruct (f_sidxs f) as [|sx r]; cbn [is_nil negb]; [|apply scan_sidxs_designates].
  rewrite Nat2N.id. destruct (f_tfra f); [reflexivity|]. destruct (f_start_on_moof f); [|reflexivity].
  destruct (last_opt (f_segs f)) as [s|]; [|reflexivity].
  cbn [q_styp q_open]. apply negb_orb.
Qed.

Lemma abs_add_segment f styp pos :
  abs (add_segment f (new_segment styp pos)) = mkB (S (q_nseg (abs f))) (q_sidxs (abs f)) (is_some styp) false false /\
  segs_view (add_segment f (new_segment styp pos)) = segs_view f ++ [(pos, is_some styp)].
Proof.
  destruct (abs_counts f) as [-> ->]. split; [exact (abs_snoc (add_segment _ _) _ _ eq_refl)|].
  unfold segs_view, add_segment. cbn [f_segs]. apply map_app.
Qed.

Lemma abs_started f pos :
  let st := media_starts (f_start_on_moof f) (f_tfra f) (abs f) pos in
  abs (started f pos) = (if st then mkB (S (q_nseg (abs f))) (q_sidxs (abs f)) false false false else abs f) /\
  segs_view (started f pos) = segs_view f ++ (if st then [(pos, false)] else []).
Proof.
  cbn zeta. unfold started. rewrite seg_start_spec.
  destruct (media_starts _ _ _ _); [apply abs_add_segment|]. rewrite app_nil_r. auto.
Qed.

(* after the box went into the last fragment, which was opened for it if `opens` says so *)
Lemma abs_pushed f opens pos b f' :
  pushed f opens pos b f' ->
  exists s, last_opt (f_segs f) = Some s /\
    abs f' = mkB (q_nseg (abs f)) (q_sidxs (abs f)) (q_styp (abs f)) true
                 (match b_kind b with KMoof => false | _ => if opens s then true else q_open (abs f) end) /\
    segs_view f' = segs_view f.
Proof.
  intros (segs & s & frs & fr & Es & H & ->). exists s. rewrite (abs_snoc _ _ _ Es), Es, last_opt_snoc.
  split; [reflexivity|]. split.
  - rewrite (abs_snoc (set_segs f _) segs _ eq_refl). cbn [set_segs f_sidxs with_frags sg_styp sg_frags q_nseg q_sidxs q_styp q_open].
    f_equal; [destruct frs; reflexivity|]. unfold seg_open. cbn [with_frags sg_frags]. rewrite last_opt_snoc.
    unfold frag_add_child. destruct (opens s).
    + destruct H as [_ ->]. destruct (b_kind b); reflexivity.
    + rewrite H, last_opt_snoc. destruct (b_kind b); reflexivity.
  - unfold segs_view. cbn [set_segs f_segs]. rewrite Es, !map_app. reflexivity.
Qed.

Lemma add_child_switch_bound f b pos f' :
  add_child_switch f b pos = Ok f' ->
  f_tfra f' = f_tfra f /\ f_start_on_moof f' = f_start_on_moof f /\
  let '(q', st) := bstep (f_start_on_moof f) (f_tfra f) (abs f) b pos in
  abs f' = q' /\ segs_view f' = segs_view f ++ (if st then [(pos, kind_eqb (b_kind b) KStyp)] else []).
Proof.
  intros A. apply add_child_switch_inv in A. unfold bstep.
  destruct (b_kind b) eqn:K; cbn [kind_eqb]; rewrite ?app_nil_r.
  - (* ftyp *) subst f'. auto.
  - (* styp *) subst f'. split; [reflexivity|]. split; [reflexivity|]. apply abs_add_segment.
  - (* moov *) subst f'. destruct (b_stts_empty b); auto.
  - (* sidx *)
    destruct (abs_counts f) as [-> Eq]. destruct A as [[Es ->] | (segs & s & Es & ->)]; (split; [reflexivity|]); (split; [reflexivity|]).
    + rewrite Es. cbn [length Nat.eqb]. rewrite Eq, (abs_nil f Es). split; [|unfold segs_view; cbn [f_segs]; rewrite Es; reflexivity].
      apply abs_nil. reflexivity.
    + rewrite Es, app_length, Nat.add_1_r. cbn [Nat.eqb]. split.
      * rewrite (abs_snoc f _ _ Es). exact (abs_snoc (set_segs f _) _ (seg_add_sidx s _) eq_refl).
      * unfold segs_view. cbn [set_segs f_segs]. rewrite Es, !map_app. reflexivity.
  - (* moof *)
    destruct (abs_started (set_fragmented f) pos) as [Q1 V1]. cbn zeta in Q1, V1.
    destruct (abs_pushed _ _ _ _ _ A) as (s & _ & Q2 & V2). rewrite K in Q2. rewrite Q2, V2, Q1, V1.
    destruct (pushed_top _ _ _ _ _ A) as [? ->]. change (abs (set_fragmented f)) with (abs f).
    destruct (started_cases (set_fragmented f) pos) as [-> | ->]; (split; [reflexivity|]); (split; [reflexivity|]);
      destruct (media_starts _ _ _ _); auto.
  - (* mdat *)
    destruct (f_fragmented f).
    + destruct (abs_pushed _ _ _ _ _ A) as (s & L & Q2 & V2). rewrite K in Q2. rewrite Q2, V2.
      destruct A as (segs & s' & frs & fr & Es & H & ->). split; [reflexivity|]. split; [reflexivity|]. split; [|reflexivity].
      rewrite (abs_snoc _ _ _ Es), H. destruct frs; reflexivity.
    + subst f'. destruct (match f_mdat f with Some _ => _ | None => _ end); auto.
  - (* emsg *)
    destruct (abs_started f pos) as [Q1 V1]. cbn zeta in Q1, V1.
    destruct (abs_pushed _ _ _ _ _ A) as (s & L & Q2 & V2). rewrite K in Q2. rewrite Q2, V2, V1.
    assert (Hf : q_has_frag (abs (started f pos)) = negb (emsg_opens s)) by (unfold abs; rewrite L; reflexivity).
    destruct (pushed_top _ _ _ _ _ A) as [? ->]. rewrite <- Q1. clear Q1 Q2 V1 V2.
    split; [destruct (started_cases f pos) as [-> | ->]; reflexivity|]. split; [destruct (started_cases f pos) as [-> | ->]; reflexivity|].
    split; [|reflexivity]. destruct (abs (started f pos)) as [n sx st hf op]. cbn [q_nseg q_sidxs q_styp q_has_frag q_open] in *.
    rewrite Hf. destruct (emsg_opens s); reflexivity.
  - (* mfra *) subst f'. auto.
  - (* other *) subst f'. auto.
Qed.

Lemma add_children_bound bs : forall f pos f',
  add_children f pos bs = Ok f' ->
  segs_view f' = segs_view f ++ boundaries (f_start_on_moof f) (f_tfra f) (abs f) pos bs.
Proof.
  induction bs as [|b t IH]; intros f pos f'.
  - cbn. intros [= <-]. rewrite app_nil_r. reflexivity.
  - cbn [add_children boundaries]. destruct (add_child f b pos) as [f1| | |] eqn:A; cbn [rbind]; try discriminate.
    intros H. destruct (add_child_inv _ _ _ _ A) as (f2 & A2 & ->).
    destruct (add_child_switch_bound _ _ _ _ A2) as (T & M & B).
    destruct (bstep (f_start_on_moof f) (f_tfra f) (abs f) b pos) as [q' st]. destruct B as [<- V].
    rewrite (IH _ _ _ H). cbn [with_children f_start_on_moof f_tfra]. rewrite M, T, app_assoc. f_equal. exact V.
Qed.

Lemma hit_true l n pos : hit l n pos = true <-> nth_error l n = Some pos.
Proof.
  unfold hit. destruct (nth_error l n) as [q|]; split; intros H; try discriminate.
  - apply N.eqb_eq in H. subst. reflexivity.
  - injection H as ->. apply N.eqb_refl.
Qed.

