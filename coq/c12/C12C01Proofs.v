(* C12C01Proofs.v — the per-box hypothesis `stable` of C12_reencode_identical discharged by C01's box model
   (coq/c01, read-only): the bytes box.Encode writes for the box decoded from a byte string x are
   C01Model.raw_box false of C01Model.decode x; for x written by the library itself (the encoding of any exactly
   decoded tree: C01's fixpoint_full = C01_fixpoint) or for x whose decoded tree has no reason to differ
   (why_box = []: C01_fixpoint_partial) these are x again. *)
From V.lib Require Import Base.
From V.c05 Require Import C05CodecModel.
From V.c02 Require Import C02AggModel C02AggFragProofs C02AggScanProofs.
From V.c01 Require C01Model C01FixProofs C01WhyProofs.
From V.c12 Require Import C12Model C12Spec C12PartProofs C12EncProofs C12Bytes C12BytesProofs C12StreamProofs C12C01Model.

(* x is the encoding (Box.Encode of the Go code) of a tree that DecodeBoxSR returned for some input bs, exactly decoded:
   x went through the library once *)
Definition c01_written (x : list N) : Prop :=
  exists bs t, bytes_ok bs = true /\ C01Model.decode bs = Ok (t, []) /\ C01Model.exact_box t = true /\
               C01Model.raw_box false t = Ok x.

(* x decodes to a tree about which the model has nothing to report (exact, all captured reserved bytes have the
   encoder's values) *)
Definition c01_plain (x : list N) : Prop :=
  bytes_ok x = true /\ exists t, C01Model.decode x = Ok (t, []) /\ C01Model.why_box t = [].

Definition c01_box (x : list N) : Prop := c01_written x \/ c01_plain x.

Lemma c01_reenc_fix x : c01_box x -> c01_reenc x = x.
Proof.
  intros [(bs & t & Hok & Hd & Hex & Hr) | (Hok & t & Hd & Hw)].
  - destruct (C01FixProofs.fixpoint_full bs t Hok Hd Hex) as (enc & He & _ & _ & _ & _ & Hd2 & _ & Hr2 & _).
    rewrite Hr in He. injection He as <-. unfold c01_reenc. rewrite Hd2, Hr2. reflexivity.
  - destruct (C01WhyProofs.fixpoint_partial x t Hok Hd Hw) as (enc & He & _ & _ & ->).
    unfold c01_reenc. rewrite Hd, He. reflexivity.
Qed.

Lemma bytes_eqb_refl a : bytes_eqb a a = true.
Proof. induction a as [|x a IH]; [reflexivity|]. cbn [bytes_eqb]. rewrite N.eqb_refl, IH. reflexivity. Qed.

Lemma c01_stable inb doff bs :
  (forall b, In b bs -> c01_box (inb (b_tag b))) -> forallb (stable (c01_env inb doff)) bs = true.
Proof.
  intros H. apply forallb_forall. intros b Hb. unfold stable, enc0, in0, c01_env. cbn [bi_enc bi_in].
  rewrite (c01_reenc_fix _ (H b Hb)). apply bytes_eqb_refl.
Qed.

(* `styp moof mdat` as written by the library (mp4.NewStyp, CreateFragment(7, 1) with two samples, the first with
   composition offset 3000; trun version 1, data offset 124 = 116 + 8 at byte 80 of the moof) *)
Definition x_styp : list N := [0; 0; 0; 20; 115; 116; 121; 112; 99; 109; 102; 115; 0; 0; 0; 0; 100; 97; 115; 104].
Definition x_moof : list N :=
  [0; 0; 0; 116; 109; 111; 111; 102; 0; 0; 0; 16; 109; 102; 104; 100; 0; 0; 0; 0; 0; 0; 0; 7; 0; 0; 0; 92; 116; 114; 97; 102;
   0; 0; 0; 16; 116; 102; 104; 100; 0; 2; 0; 0; 0; 0; 0; 1; 0; 0; 0; 16; 116; 102; 100; 116; 0; 0; 0; 0; 0; 1; 95; 144;
   0; 0; 0; 52; 116; 114; 117; 110; 1; 0; 15; 1; 0; 0; 0; 2; 0; 0; 0; 124; 0; 0; 3; 232; 0; 0; 0; 4; 2; 0; 0; 0; 0; 0; 11; 184;
   0; 0; 3; 232; 0; 0; 0; 4; 2; 0; 0; 0; 0; 0; 0; 0].
Definition x_mdat : list N := [0; 0; 0; 16; 109; 100; 97; 116; 1; 2; 3; 0; 1; 2; 3; 1].

Definition x_inb (tag : N) : list N := if tag =? 0 then x_styp else if tag =? 1 then x_moof else x_mdat.
Definition x_doff (tag : N) : option N := if tag =? 1 then Some 80 else None.
Definition x_boxes : list topbox :=
  number_from 0 [rb KStyp 20;
                 mkBox KMoof 0 116 8 0 [] false [] false [mkTraf 1 90000 [[1000; 1000]] 3000] [] 0 0 0 0;
                 rb KMdat 16].

Lemma c01_plain_by_compute x :
  bytes_ok x = true ->
  match C01Model.decode x with
  | Ok (t, []) => match C01Model.why_box t with [] => true | _ => false end
  | _ => false
  end = true -> c01_plain x.
Proof.
  intros Hok H. split; [exact Hok|].
  destruct (C01Model.decode x) as [[t r]| | |]; try discriminate. destruct r; [|discriminate].
  exists t. split; [reflexivity|]. destruct (C01Model.why_box t); [reflexivity|discriminate].
Qed.

