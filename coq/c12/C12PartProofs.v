(* C12PartProofs.v — what one AddChild does to the segments, and the partition theorem: the fragments of
   the assembled file hold exactly the media boxes of the input, in order. *)
From V.lib Require Import Base.
From V.c12 Require Import C12Model C12Spec.

Lemma last_opt_snoc {A} (l : list A) x : last_opt (l ++ [x]) = Some x.
Proof.
  induction l as [|a t IH]; [reflexivity|].
  cbn [app]. destruct (t ++ [x]) eqn:E.
  - destruct t; discriminate.
  - exact IH.
Qed.

Lemma last_opt_inv {A} (l : list A) :
  match last_opt l with Some x => exists l', l = l' ++ [x] | None => l = [] end.
Proof. destruct l as [|x l' _] using rev_ind; [reflexivity|]. rewrite last_opt_snoc. eauto. Qed.

Lemma set_last_snoc {A} (l : list A) x y : set_last (l ++ [x]) y = l ++ [y].
Proof. unfold set_last. rewrite removelast_last. reflexivity. Qed.

Lemma concat_map_app {A B} (g : A -> list B) (a b : list A) :
  concat (map g (a ++ b)) = concat (map g a) ++ concat (map g b).
Proof. rewrite map_app, concat_app. reflexivity. Qed.

Lemma concat_map_snoc {A B} (g : A -> list B) (a : list A) x :
  concat (map g (a ++ [x])) = concat (map g a) ++ g x.
Proof. rewrite concat_map_app. cbn. rewrite app_nil_r. reflexivity. Qed.

(* the final append to f.Children, which nothing below looks at *)
Definition with_children (f : file) (ch : list topbox) : file :=
  mkFile (f_ftyp f) (f_moov f) (f_mdat f) (f_init f) (f_sidxs f) (f_tfra f) (f_mfra f) (f_segs f) ch
         (f_fragmented f) (f_start_on_moof f).

Lemma add_child_inv f b pos f' :
  add_child f b pos = Ok f' ->
  exists f1, add_child_switch f b pos = Ok f1 /\ f' = with_children f1 (f_children f1 ++ [b]).
Proof.
  unfold add_child. destruct (add_child_switch f b pos) as [f1| | |]; cbn [rbind]; try discriminate.
  intros [= <-]. eauto.
Qed.

Definition started (f : file) (pos : N) : file :=
  if seg_start f pos then add_segment f (new_segment None pos) else f.

Definition with_frags (s : segment) (frs : list fragment) : segment :=
  mkSeg (sg_styp s) (sg_start s) (sg_sidxs s) frs.

(* An emsg, a moof, or the mdat of a fragmented file becomes the last child of the last fragment of the
   last segment; where `opens` holds of that segment a new fragment is started at pos to take it. *)
Definition pushed (f : file) (opens : segment -> bool) (pos : N) (b : topbox) (f' : file) : Prop :=
  exists segs s frs fr,
    f_segs f = segs ++ [s] /\
    (if opens s then frs = sg_frags s /\ fr = new_fragment pos else sg_frags s = frs ++ [fr]) /\
    f' = set_segs f (segs ++ [with_frags s (frs ++ [frag_add_child fr b])]).

(* a moof opens a fragment unless the last one still waits for its moof (it was opened by an emsg) *)
Definition moof_opens (s : segment) : bool :=
  match last_opt (sg_frags s) with Some lf => is_some (fr_moof lf) | None => true end.

Definition emsg_opens (s : segment) : bool := is_nil (sg_frags s).

(* the common end of the three branches of AddChild's switch *)
Definition push_into (f : file) (s1 : segment) (b : topbox) : res file :=
  match last_opt (sg_frags s1) with
  | None => Panic
  | Some fr => Ok (set_segs f (set_last (f_segs f) (seg_set_last_fragment s1 (frag_add_child fr b))))
  end.

Lemma push_into_pushed f (opens : segment -> bool) pos b f' :
  match last_opt (f_segs f) with
  | None => @Panic file
  | Some s => push_into f (if opens s then seg_add_fragment s (new_fragment pos) else s) b
  end = Ok f' ->
  pushed f opens pos b f'.
Proof.
  intros H. pose proof (last_opt_inv (f_segs f)) as Hl.
  destruct (last_opt (f_segs f)) as [s|]; [|discriminate]. destruct Hl as [segs Es].
  exists segs, s. unfold push_into, seg_set_last_fragment in H. fold (with_frags s) in H.
  destruct (opens s); cbn [seg_add_fragment sg_frags sg_styp sg_start sg_sidxs] in H.
  - rewrite last_opt_snoc in H. injection H as <-. rewrite Es, !set_last_snoc.
    exists (sg_frags s), (new_fragment pos). auto.
  - pose proof (last_opt_inv (sg_frags s)) as Hf.
    destruct (last_opt (sg_frags s)) as [fr|]; [|discriminate]. destruct Hf as [frs Ef].
    injection H as <-. rewrite Es, Ef, !set_last_snoc. exists frs, fr. auto.
Qed.

(* AddChild's switch, kind by kind: the three ways of changing the segments are a new segment, a sidx behind the
   head of the last segment, and `pushed`; everything else leaves the segments alone. *)
Lemma add_child_switch_inv f b pos f' :
  add_child_switch f b pos = Ok f' ->
  match b_kind b with
  | KFtyp => f' = mkFile (Some b) (f_moov f) (f_mdat f) (f_init f) (f_sidxs f) (f_tfra f) (f_mfra f)
                         (f_segs f) (f_children f) (f_fragmented f) (f_start_on_moof f)
  | KMoov => f' = if b_stts_empty b
                  then mkFile (f_ftyp f) (Some b) (f_mdat f) (Some (opt_list (f_ftyp f) ++ [b])) (f_sidxs f) (f_tfra f)
                              (f_mfra f) (f_segs f) (f_children f) true (f_start_on_moof f)
                  else mkFile (f_ftyp f) (Some b) (f_mdat f) (f_init f) (f_sidxs f) (f_tfra f) (f_mfra f)
                              (f_segs f) (f_children f) (f_fragmented f) (f_start_on_moof f)
  | KMfra => f' = mkFile (f_ftyp f) (f_moov f) (f_mdat f) (f_init f) (f_sidxs f) (f_tfra f) (Some b)
                         (f_segs f) (f_children f) (f_fragmented f) (f_start_on_moof f)
  | KOther => f' = f
  | KStyp => f' = add_segment f (new_segment (Some b) pos)
  | KSidx =>
      let sx := mkSidx b (u64 (pos + b_first_offset b + b_size b)) in
      (f_segs f = [] /\
       f' = mkFile (f_ftyp f) (f_moov f) (f_mdat f) (f_init f) (f_sidxs f ++ [sx]) (f_tfra f)
                   (f_mfra f) (f_segs f) (f_children f) (f_fragmented f) (f_start_on_moof f)) \/
      (exists segs s, f_segs f = segs ++ [s] /\ f' = set_segs f (segs ++ [seg_add_sidx s sx]))
  | KMoof => pushed (started (set_fragmented f) pos) moof_opens pos b f'
  | KEmsg => pushed (started f pos) emsg_opens pos b f'
  | KMdat =>
      if f_fragmented f then pushed f (fun _ => false) pos b f'
      else f' = if match f_mdat f with Some m => mdat_payload m =? 0 | None => true end
                then mkFile (f_ftyp f) (f_moov f) (Some b) (f_init f) (f_sidxs f) (f_tfra f) (f_mfra f)
                            (f_segs f) (f_children f) (f_fragmented f) (f_start_on_moof f)
                else f
  end.
Proof.
  unfold add_child_switch, start_segment_if_needed. destruct (b_kind b); cbn [rbind]; intros A.
  - injection A as <-. reflexivity.
  - injection A as <-. reflexivity.
  - destruct (b_stts_empty b); injection A as <-; reflexivity.
  - pose proof (last_opt_inv (f_segs f)) as L. destruct (last_opt (f_segs f)) as [s|]; injection A as <-; [right|left; auto].
    destruct L as [segs Es]. exists segs, s. rewrite Es at 2. rewrite set_last_snoc. auto.
  - apply push_into_pushed. rewrite <- A. fold (started (set_fragmented f) pos).
    destruct (last_opt (f_segs (started (set_fragmented f) pos))) as [s|]; [|reflexivity]. unfold moof_opens.
    destruct (last_opt (sg_frags s)) as [lf|]; [destruct (is_some (fr_moof lf))|]; reflexivity.
  - destruct (f_fragmented f) eqn:Fr; cbn [negb] in A; [apply push_into_pushed; exact A|].
    destruct (match f_mdat f with Some m => mdat_payload m =? 0 | None => true end); injection A as <-; reflexivity.
  - apply push_into_pushed. exact A.
  - injection A as <-. reflexivity.
  - injection A as <-. reflexivity.
Qed.

Lemma started_cases f pos : started f pos = f \/ started f pos = add_segment f (new_segment None pos).
Proof. unfold started. destruct (seg_start f pos); auto. Qed.

Lemma frag_add_child_children fr b : fr_children (frag_add_child fr b) = fr_children fr ++ [b].
Proof. unfold frag_add_child. destruct (b_kind b); reflexivity. Qed.

Lemma sfb_pushed (opens : bool) s pos frs fr b :
  (if opens then frs = sg_frags s /\ fr = new_fragment pos else sg_frags s = frs ++ [fr]) ->
  seg_fragment_boxes (with_frags s (frs ++ [frag_add_child fr b])) = seg_fragment_boxes s ++ [b].
Proof.
  unfold seg_fragment_boxes. cbn [with_frags sg_frags]. rewrite concat_map_snoc, frag_add_child_children.
  destruct opens.
  - intros [-> ->]. cbn. reflexivity.
  - intros ->. rewrite concat_map_snoc, app_assoc. reflexivity.
Qed.

Lemma ffb_add_segment f styp pos :
  file_fragment_boxes (add_segment f (new_segment styp pos)) = file_fragment_boxes f.
Proof.
  unfold add_segment, file_fragment_boxes. cbn [f_segs]. rewrite concat_map_snoc. apply app_nil_r.
Qed.

Lemma ffb_started f pos : file_fragment_boxes (started f pos) = file_fragment_boxes f.
Proof. destruct (started_cases f pos) as [-> | ->]; [reflexivity|apply ffb_add_segment]. Qed.

Lemma ffb_pushed f opens pos b f' :
  pushed f opens pos b f' -> file_fragment_boxes f' = file_fragment_boxes f ++ [b].
Proof.
  intros (segs & s & frs & fr & Es & H & ->). unfold file_fragment_boxes, set_segs. cbn [f_segs].
  rewrite Es, !concat_map_snoc, (sfb_pushed _ _ _ _ _ _ H), app_assoc. reflexivity.
Qed.

Lemma pushed_top f opens pos b f' : pushed f opens pos b f' -> exists segs', f' = set_segs f segs'.
Proof. intros (? & ? & ? & ? & _ & _ & ->). eauto. Qed.

Lemma pushed_nonnil f opens pos b f' : pushed f opens pos b f' -> f_segs f <> [] /\ f_segs f' <> [].
Proof.
  intros (segs & s & frs & fr & Es & _ & ->). cbn [set_segs f_segs]. rewrite Es.
  split; intros E; apply app_eq_nil in E; destruct E; discriminate.
Qed.

(* segments exist only in a file already marked fragmented *)
Definition inv (f : file) : Prop := f_segs f <> [] -> f_fragmented f = true.

Definition step_media (fragd : bool) (b : topbox) : list topbox :=
  if is_media b && (fragd || is_marker b) then [b] else [].

Lemma add_child_switch_step f b pos f' :
  inv f -> add_child_switch f b pos = Ok f' ->
  inv f' /\
  f_fragmented f' = f_fragmented f || is_marker b /\
  file_fragment_boxes f' = file_fragment_boxes f ++ step_media (f_fragmented f) b.
Proof.
  intros Hinv A. apply add_child_switch_inv in A. unfold step_media, is_media, is_marker, inv in *.
  destruct (b_kind b); cbn [andb]; rewrite ?app_nil_r, ?orb_false_r, ?orb_true_r.
  - (* ftyp *) subst f'. auto.
  - (* styp *) subst f'. rewrite ffb_add_segment. auto.
  - (* moov *) subst f'. destruct (b_stts_empty b); rewrite ?orb_false_r, ?orb_true_r; auto.
  - (* sidx *) destruct A as [[Es ->] | (segs & s & Es & ->)]; [auto|].
    unfold file_fragment_boxes. cbn [set_segs f_segs f_fragmented]. rewrite Es, !concat_map_snoc. repeat split.
    intros _. apply Hinv. rewrite Es. intros E. apply app_eq_nil in E. destruct E; discriminate.
  - (* moof *) rewrite (ffb_pushed _ _ _ _ _ A), ffb_started. destruct (pushed_top _ _ _ _ _ A) as [? ->].
    cbn [set_segs f_fragmented]. destruct (started_cases (set_fragmented f) pos) as [-> | ->]; auto.
  - (* mdat *)
    destruct (f_fragmented f) eqn:Fr; cbn [orb].
    + rewrite (ffb_pushed _ _ _ _ _ A). destruct (pushed_top _ _ _ _ _ A) as [? ->]. cbn [set_segs f_fragmented]. auto.
    + subst f'. destruct (match f_mdat f with Some m => mdat_payload m =? 0 | None => true end);
        cbn [f_segs f_fragmented]; rewrite ?Fr, app_nil_r; repeat split; intros H; apply Hinv in H; discriminate.
  - (* emsg *) rewrite (ffb_pushed _ _ _ _ _ A), ffb_started.
    destruct (pushed_nonnil _ _ _ _ _ A) as [N1 _]. destruct (pushed_top _ _ _ _ _ A) as [? ->].
    cbn [set_segs f_fragmented].
    assert (F1 : f_fragmented (started f pos) = true).
    { destruct (started_cases f pos) as [E | E]; rewrite E in *; [apply Hinv; exact N1|reflexivity]. }
    rewrite F1. auto.
  - (* mfra *) subst f'. auto.
  - (* other *) subst f'. auto.
Qed.

Lemma add_children_flat bs : forall f pos f',
  inv f -> add_children f pos bs = Ok f' ->
  inv f' /\ file_fragment_boxes f' = file_fragment_boxes f ++ frag_media (f_fragmented f) bs.
Proof.
  induction bs as [|b t IH]; intros f pos f' Hinv.
  - cbn. intros [= <-]. rewrite app_nil_r. auto.
  - cbn [add_children]. destruct (add_child f b pos) as [f1| | |] eqn:A; cbn [rbind]; try discriminate.
    intros H. destruct (add_child_inv _ _ _ _ A) as (f2 & A2 & ->). destruct (add_child_switch_step _ _ _ _ Hinv A2) as (I1 & F1 & B1).
    destruct (IH (with_children f2 _) _ _ I1 H) as (I2 & B2). split; [exact I2|].
    rewrite B2. change (file_fragment_boxes f2 ++ frag_media (f_fragmented f2) t = file_fragment_boxes f ++ frag_media (f_fragmented f) (b :: t)).
    rewrite B1, F1, <- app_assoc. reflexivity.
Qed.

Lemma decode_loop_add_children bs : forall f pos last f',
  decode_loop f pos last bs = Ok f' -> add_children f pos bs = Ok f'.
Proof.
  induction bs as [|b t IH]; intros f pos last f'; [auto|].
  cbn [decode_loop add_children].
  destruct (kind_eqb (b_kind b) KMdat && negb (mdat_check f b last)); [discriminate|].
  destruct (add_child f b pos) as [f1| | |]; cbn [rbind]; try discriminate.
  apply IH.
Qed.

Lemma assemble_inv o bs f :
  assemble o bs = Ok f ->
  exists tf f0, find_tfra (o_ism o) bs = Ok tf /\
                decode_loop (empty_file (o_start_on_moof o) tf) 0 None bs = Ok f0 /\ f = clear_tfra f0.
Proof.
  unfold assemble. destruct (find_tfra (o_ism o) bs) as [tf| | |]; cbn [rbind]; try discriminate.
  destruct (decode_loop _ 0 None bs) as [f0| | |] eqn:D; cbn [rbind]; try discriminate.
  intros [= <-]. eauto.
Qed.

Lemma partition o bs f :
  assemble o bs = Ok f -> file_fragment_boxes f = frag_media false bs.
Proof.
  intros H. destruct (assemble_inv _ _ _ H) as (tf & f0 & _ & D & ->).
  apply decode_loop_add_children in D.
  apply add_children_flat in D; [exact (proj2 D)|]. intros E. destruct (E eq_refl).
Qed.

Lemma frag_media_true bs : frag_media true bs = filter is_media bs.
Proof.
  induction bs as [|b t IH]; [reflexivity|].
  cbn [frag_media filter orb]. rewrite andb_true_r, IH. destruct (is_media b); reflexivity.
Qed.

Lemma frag_media_no_progressive bs :
  no_progressive_mdat bs = true -> frag_media false bs = filter is_media bs.
Proof.
  induction bs as [|b t IH]; [reflexivity|].
  cbn [no_progressive_mdat frag_media filter orb].
  destruct (is_marker b) eqn:M.
  - intros _. rewrite frag_media_true, andb_true_r. destruct (is_media b); reflexivity.
  - intros H. apply andb_true_iff in H. destruct H as [Hk Ht].
    rewrite andb_false_r, (IH Ht). cbn [app].
    assert (is_media b = false) as ->; [|reflexivity].
    unfold is_media, is_marker in *. destruct (b_kind b); try reflexivity; discriminate.
Qed.

Lemma partition_fragmented o bs f :
  no_progressive_mdat bs = true ->
  assemble o bs = Ok f -> file_fragment_boxes f = filter is_media bs.
Proof. intros Hn H. rewrite (partition _ _ _ H). apply frag_media_no_progressive. exact Hn. Qed.

(* C12_partition is stated over the flattening of the fragments of the segments written out *)
Lemma ffb_flat f :
  concat (map fr_children (concat (map sg_frags (f_segs f)))) = file_fragment_boxes f.
Proof.
  unfold file_fragment_boxes, seg_fragment_boxes.
  induction (f_segs f) as [|s t IH]; [reflexivity|].
  cbn [map concat]. rewrite map_app, concat_app, IH. reflexivity.
Qed.

