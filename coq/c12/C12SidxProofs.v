(* C12SidxProofs.v — after UpdateSidx and segment-mode encoding the references of the first
   top-level sidx tile the media: reference i starts at the first byte of segment i, together they
   end where the media ends, durations are the summed sample durations of the reference track. *)
From V.lib Require Import Base.
From V.c12 Require Import C12Model C12Spec C12PartProofs C12EncProofs C12Sidx.

(* summed sample durations of track `id` in a fragment / a segment (unbounded) *)
Definition traf_ref_dur (id : N) (t : traf) : N :=
  if t_track t =? id then sumN (concat (t_truns t)) else 0.
Definition frag_ref_dur (id : N) (fr : fragment) : N :=
  match fr_moof fr with Some m => sumN (map (traf_ref_dur id) (b_trafs m)) | None => 0 end.
Definition seg_ref_dur (id : N) (s : segment) : N := sumN (map (frag_ref_dur id) (sg_frags s)).

Definition sizes_of (l : list topbox) : N := sumN (map b_size l).

Lemma sizes_of_app a b : sizes_of (a ++ b) = sizes_of a + sizes_of b.
Proof. unfold sizes_of. rewrite map_app, sumN_app. reflexivity. Qed.

Lemma sizes_concat (ll : list (list topbox)) : sizes_of (concat ll) = sumN (map sizes_of ll).
Proof.
  induction ll as [|l t IH]; [reflexivity|]. cbn [concat map sumN]. rewrite sizes_of_app, IH. reflexivity.
Qed.

Lemma seg_size_boxes s : seg_size s = sizes_of (seg_boxes s).
Proof.
  unfold seg_size, seg_boxes. rewrite !sizes_of_app.
  assert (E1 : match sg_styp s with Some b => b_size b | None => 0 end = sizes_of (opt_list (sg_styp s))).
  { unfold sizes_of. destruct (sg_styp s); cbn [opt_list map sumN]; lia. }
  assert (E2 : sumN (map (fun sx => b_size (sx_box sx)) (sg_sidxs s)) = sizes_of (map sx_box (sg_sidxs s))).
  { unfold sizes_of. rewrite map_map. reflexivity. }
  assert (E3 : sumN (map frag_size (sg_frags s)) = sizes_of (seg_fragment_boxes s)).
  { unfold seg_fragment_boxes. rewrite sizes_concat, map_map. reflexivity. }
  rewrite E1, E2, E3. lia.
Qed.

Lemma sizes_firstn_segs segs i :
  sumN (firstn i (map seg_size segs)) = sizes_of (concat (map seg_boxes (firstn i segs))).
Proof.
  rewrite sizes_concat, map_map, <- firstn_map. f_equal. f_equal.
  apply map_ext. intros s. apply seg_size_boxes.
Qed.

Definition M32 : N := 4294967296.
Definition M64 : N := 18446744073709551616.
Definition M31 : N := 2147483648.

Definition wrapM (M : N) (x : N) : N := x mod M.

Section Wrap.
Variable M : N.
Hypothesis Mpos : 0 < M.
Variable id : N.

(* two wrapped additions in a row are one *)
Lemma wrap_add a x y r : r = ((a + x) mod M + y) mod M -> r = (a + (x + y)) mod M /\ r < M.
Proof.
  intros ->. rewrite N.add_mod_idemp_l, N.add_assoc by (apply N.neq_0_lt_0; exact Mpos).
  split; [reflexivity|]. apply N.mod_lt, N.neq_0_lt_0. exact Mpos.
Qed.

Lemma wrap_0 a : a < M -> a = (a + 0) mod M.
Proof. intros H. rewrite N.add_0_r, N.mod_small; auto. Qed.

Lemma fold_wrap l : forall a, a < M -> fold_left (fun d x => wrapM M (d + x)) l a = (a + sumN l) mod M.
Proof.
  induction l as [|x t IH]; intros a Ha; [apply wrap_0; exact Ha|].
  cbn [fold_left sumN]. unfold wrapM at 2. apply wrap_add. apply IH, N.mod_lt, N.neq_0_lt_0. exact Mpos.
Qed.

(* A step over one traf that adds the samples of a traf of the reference track to the duration, whatever it
   does with the times: both texts of findSegmentData. *)
Definition adds_dur (step : sd_acc -> traf -> sd_acc) : Prop :=
  forall a t, a_dur (step a t) = if t_track t =? id then dur_fold (wrapM M) t (a_dur a) else a_dur a.

Lemma trafs_fold_dur step ts : adds_dur step -> forall a,
  a_dur a < M ->
  a_dur (fold_left step ts a) = (a_dur a + sumN (map (traf_ref_dur id) ts)) mod M.
Proof.
  intros Hstep. induction ts as [|t r IH]; intros a Ha; [apply wrap_0; exact Ha|].
  assert (E : a_dur (step a t) = (a_dur a + traf_ref_dur id t) mod M).
  { rewrite Hstep. unfold traf_ref_dur, dur_fold. destruct (t_track t =? id); [apply fold_wrap|apply wrap_0]; exact Ha. }
  cbn [fold_left map sumN]. apply wrap_add. rewrite <- E. apply IH. rewrite E. apply N.mod_lt, N.neq_0_lt_0. exact Mpos.
Qed.

Lemma traf_step_w_dur ff : adds_dur (traf_step_w (wrapM M) id ff).
Proof. intros a t. unfold traf_step_w. destruct (t_track t =? id); reflexivity. Qed.

Lemma traf_step_r_dur : adds_dur (traf_step_r (wrapM M) id).
Proof. intros a t. unfold traf_step_r. destruct (t_track t =? id); reflexivity. Qed.

Lemma frags_step_w_dur frs : forall ff a a',
  a_dur a < M ->
  frags_step_w (wrapM M) id ff a frs = Ok a' ->
  a_dur a' = (a_dur a + sumN (map (frag_ref_dur id) frs)) mod M.
Proof.
  induction frs as [|fr t IH]; intros ff a a' Ha.
  - cbn. intros [= <-]. apply wrap_0. exact Ha.
  - cbn [frags_step_w map sumN]. unfold frag_ref_dur at 1. destruct (fr_moof fr) as [m|]; [|discriminate].
    intros H. apply wrap_add. rewrite <- (trafs_fold_dur _ _ (traf_step_w_dur ff) a Ha). apply IH in H; [exact H|].
    rewrite (trafs_fold_dur _ _ (traf_step_w_dur ff) a Ha). apply N.mod_lt, N.neq_0_lt_0. exact Mpos.
Qed.

Lemma frags_step_r_dur frs : forall a a',
  a_dur a < M ->
  frags_step_r (wrapM M) id a frs = Ok a' ->
  a_dur a' = (a_dur a + sumN (map (frag_ref_dur id) frs)) mod M.
Proof.
  induction frs as [|fr t IH]; intros a a' Ha.
  - cbn. intros [= <-]. apply wrap_0. exact Ha.
  - cbn [frags_step_r map sumN]. unfold frag_ref_dur at 1. destruct (fr_moof fr) as [m|]; [|discriminate].
    intros H. apply wrap_add. rewrite <- (trafs_fold_dur _ _ traf_step_r_dur a Ha). apply IH in H; [exact H|].
    rewrite (trafs_fold_dur _ _ traf_step_r_dur a Ha). apply N.mod_lt, N.neq_0_lt_0. exact Mpos.
Qed.
End Wrap.

(* repaired text: no wrap survives: the size is the segment's (mod 2^64, the width of Size()) and below
   2^31, the duration is the reference track's sum (mod 2^64) and below 2^32 *)
Lemma seg_data_of_facts id s d :
  seg_data_of id s = Ok d ->
  sd_size d = seg_size s mod M64 /\ sd_size d < M31 /\ sd_dur d = seg_ref_dur id s mod M64 /\ sd_dur d < M32 /\ sd_start d = sg_start s.
Proof.
  unfold seg_data_of, frags_step.
  destruct (frags_step_r u64 id acc0 (sg_frags s)) as [a| | |] eqn:E; cbn [rbind]; try discriminate.
  apply (frags_step_r_dur M64 eq_refl) in E; [|reflexivity]. change (a_dur a = seg_ref_dur id s mod M64) in E. rewrite <- E.
  change (u64 (seg_size s)) with (seg_size s mod M64). generalize (seg_size s mod M64) (a_dur a). clear. intros z x.
  destruct (N.ltb_spec MAX_REF_SIZE z) as [|Hs]; [discriminate|]. destruct (N.ltb_spec MAX_REF_DUR x) as [|Hd]; [discriminate|].
  intros [= <-]. cbn [sd_size sd_dur sd_start]. unfold MAX_REF_SIZE, MAX_REF_DUR, M31, M32, u32 in *.
  rewrite !N.mod_small by lia. repeat split; lia.
Qed.

Lemma find_segment_data_facts id segs : forall sds,
  find_segment_data id segs = Ok sds -> Forall (fun s => seg_size s < M64) segs ->
  Forall2 (fun d s => sd_size d = seg_size s /\ sd_size d < M31 /\ sd_dur d = seg_ref_dur id s mod M64 /\ sd_dur d < M32) sds segs.
Proof.
  unfold find_segment_data. induction segs as [|s t IH]; intros sds.
  - cbn. intros [= <-] _. constructor.
  - cbn [find_segment_data_g]. destruct (seg_data_of id s) as [d| | |] eqn:E; cbn [rbind]; try discriminate.
    destruct (find_segment_data_g seg_data_of id t) as [r| | |] eqn:F; cbn [rbind]; try discriminate.
    intros [= <-] Hsz. inversion Hsz as [|? ? Hs Ht]; subst. destruct (seg_data_of_facts _ _ _ E) as (S1 & S2 & S3 & S4 & _).
    rewrite N.mod_small in S1 by exact Hs. constructor; [auto|]. apply IH; [reflexivity|exact Ht].
Qed.

(* the text before 85561e1 *)
Lemma seg_data_of_pinned_facts id s d :
  seg_data_of_pinned id s = Ok d ->
  (sd_size d = seg_size s mod M32) /\ (sd_dur d = seg_ref_dur id s mod M32).
Proof.
  unfold seg_data_of_pinned.
  destruct (frags_step_w u32 id true acc0 (sg_frags s)) as [a| | |] eqn:E; cbn [rbind]; try discriminate.
  intros [= <-]. split; [reflexivity|]. exact (frags_step_w_dur M32 eq_refl id _ true acc0 a eq_refl E).
Qed.

Lemma update_sidx_shape fsd f add nz newtag f' :
  update_sidx_g fsd f add nz newtag = Ok f' ->
  (add = true \/ f_sidxs f <> []) ->
  exists moov rt sds old anchor rest,
    f_moov f = Some moov /\
    find_reference_trak (b_traks moov) = Ok rt /\
    fsd (k_id rt) (f_segs f) = Ok sds /\
    f_sidxs f' = mkSidx (fill_sidx old rt sds nz (sumN (map (fun s => b_size (sx_box s)) rest))) anchor :: rest /\
    f_segs f' = f_segs f /\ f_init f' = f_init f /\ f_mfra f' = f_mfra f /\ f_segs f <> [].
Proof.
  unfold update_sidx_g. destruct (negb (f_fragmented f)); [discriminate|].
  destruct (f_init f) as [ini|] eqn:Ei; [|discriminate].
  destruct (f_moov f) as [moov|] eqn:Em; [|discriminate].
  destruct (is_nil (f_segs f)) eqn:Sn; [discriminate|].
  assert (Hsegs : f_segs f <> []) by (intros E; rewrite E in Sn; discriminate).
  intros H Hdo.
  assert (Hgo : negb (negb (is_nil (f_sidxs f))) && negb add = false).
  { destruct Hdo as [-> | Hne]; [apply andb_false_r|]. destruct (f_sidxs f); [congruence|reflexivity]. }
  rewrite Hgo in H.
  destruct (find_reference_trak (b_traks moov)) as [rt| | |] eqn:R; cbn [rbind] in H; try discriminate.
  destruct (negb (k_trex rt)); [discriminate|].
  destruct (fsd (k_id rt) (f_segs f)) as [sds| | |] eqn:F; cbn [rbind] in H; try discriminate.
  destruct (f_sidxs f) as [|sx rest] eqn:Sx.
  - destruct (f_segs f) as [|s0 t] eqn:Es; [discriminate|].
    destruct (first_box s0) as [fb| | |]; try discriminate.
    destruct (index_of (b_tag fb) (f_children f) 0) as [[|i]|]; try discriminate.
    injection H as <-. exists moov, rt, sds, (blank_sidx newtag), 0, []. cbn. repeat split; auto.
  - injection H as <-. exists moov, rt, sds, (sx_box sx), (sx_anchor sx), rest. cbn. repeat split; auto.
Qed.

Definition anchor_in_output (f : file) (sx : sidx) : N :=
  sizes_of (init_boxes f) + b_size (sx_box sx) + b_first_offset (sx_box sx).

(* what a reader of the written reference word gets back *)
Lemma ref_word_roundtrip sz : sz < M31 -> dec_ref_word (enc_ref_word (mkRef 0 sz 0)) = (0, sz).
Proof.
  intros H. unfold dec_ref_word, enc_ref_word. cbn [r_type r_size]. change (u32 (0 * 2147483648)) with 0.
  rewrite N.lor_0_l. unfold M31 in H. rewrite N.div_small, N.mod_small by lia. reflexivity.
Qed.

Lemma enc_ref_word_dur t sz d d' : enc_ref_word (mkRef t sz d) = enc_ref_word (mkRef t sz d').
Proof. reflexivity. Qed.

Lemma Forall2_impl {A B} (P Q : A -> B -> Prop) l l' :
  (forall a b, P a b -> Q a b) -> Forall2 P l l' -> Forall2 Q l l'.
Proof. intros H. induction 1; constructor; auto. Qed.

Lemma Forall2_len {A B} (P : A -> B -> Prop) l l' : Forall2 P l l' -> length l = length l'.
Proof. induction 1; cbn; auto. Qed.

Lemma Forall2_map_l {A B C} (P : C -> B -> Prop) (g : A -> C) l l' :
  Forall2 (fun a b => P (g a) b) l l' -> Forall2 P (map g l) l'.
Proof. induction 1; cbn; constructor; auto. Qed.

Lemma Forall2_map_eq {A B} (g : A -> N) (h : B -> N) l l' :
  Forall2 (fun a b => g a = h b) l l' -> map g l = map h l'.
Proof. induction 1; cbn; [reflexivity|]. f_equal; auto. Qed.

Lemma sidx_tiles f add nz newtag f' out :
  update_sidx f add nz newtag = Ok f' ->
  (add = true \/ f_sidxs f <> []) ->
  encode_segment_mode f' = Ok out ->
  Forall (fun s => seg_size s < M64) (f_segs f) ->
  exists sx rest moov rt,
    f_sidxs f' = sx :: rest /\ f_moov f = Some moov /\ find_reference_trak (b_traks moov) = Ok rt /\
    let refs := b_refs (sx_box sx) in
    let segs := f_segs f' in
    length refs = length segs /\ segs = f_segs f /\ segs <> [] /\
    (forall i, (i <= length segs)%nat ->
       let before := init_boxes f' ++ map sx_box (f_sidxs f') ++ concat (map seg_boxes (firstn i segs)) in
       out = before ++ concat (map seg_boxes (skipn i segs)) ++ opt_list (f_mfra f') /\
       anchor_in_output f' sx + sumN (firstn i (map r_size refs)) = sizes_of before) /\
    Forall2 (fun r s => r_size r = seg_size s /\ r_size r < M31 /\ r_type r = 0 /\
                        dec_ref_word (enc_ref_word r) = (0, seg_size s) /\
                        r_dur r = seg_ref_dur (k_id rt) s mod M64 /\ r_dur r < M32) refs segs /\
    b_refid (sx_box sx) = k_id rt /\ b_timescale (sx_box sx) = k_timescale rt.
Proof.
  intros U Hdo E Hsz. unfold update_sidx in U.
  destruct (update_sidx_shape _ _ _ _ _ _ U Hdo) as (moov & rt & sds & old & anc & rest & Hm & Hr & Hf & Hs & Hsegs & Hi & Hmf & Hne).
  pose proof (find_segment_data_facts _ _ _ Hf Hsz) as F3.
  exists (mkSidx (fill_sidx old rt sds nz (sumN (map (fun s => b_size (sx_box s)) rest))) anc), rest, moov, rt.
  split; [exact Hs|]. split; [exact Hm|]. split; [exact Hr|].
  cbn zeta. cbn [sx_box fill_sidx b_refs b_refid b_timescale].
  assert (Hsizes : map r_size (map (fun d => mkRef 0 (sd_size d) (sd_dur d)) sds) = map seg_size (f_segs f)).
  { rewrite map_map. cbn [r_size]. apply Forall2_map_eq. eapply Forall2_impl; [|exact F3]. cbn. intros; tauto. }
  rewrite Hsegs. split; [|split; [reflexivity|split; [exact Hne|split; [|split; [|split; reflexivity]]]]].
  - rewrite map_length. exact (Forall2_len _ _ _ F3).
  - intros i Hi'. split.
    + rewrite (proj1 (encode_segment_mode_ok _ _ E)), Hsegs, <- !app_assoc.
      rewrite (app_assoc (concat (map seg_boxes (firstn i (f_segs f))))), <- concat_map_app, firstn_skipn. reflexivity.
    + rewrite Hsizes, sizes_firstn_segs. rewrite !sizes_of_app. unfold anchor_in_output. rewrite Hs.
      cbn [map sx_box fill_sidx b_size b_first_offset].
      assert (Er : sizes_of (map sx_box rest) = sumN (map (fun s => b_size (sx_box s)) rest))
        by (unfold sizes_of; rewrite map_map; reflexivity).
      change (sizes_of (?x :: map sx_box rest)) with (b_size x + sizes_of (map sx_box rest)).
      cbn [fill_sidx b_size]. rewrite Er. unfold sizes_of. lia.
  - apply Forall2_map_l. eapply Forall2_impl; [|exact F3]. cbn [r_size r_type r_dur].
    intros d s (A & B & C & D). rewrite <- A.
    rewrite (enc_ref_word_dur 0 (sd_size d) (sd_dur d) 0), (ref_word_roundtrip _ B). auto 10.
Qed.

(* the witnesses of C12_sidx_pinned_refuted (the text before 85561e1 wrapped silently): ftyp moov moof mdat with an mdat
   of 2^31 bytes, resp. a sample of 3*10^9 ticks twice *)
Definition px (k : kind) (size : N) : topbox := mkBox k 0 size 8 0 [] false [] false [] [] 0 0 0 0.
Definition p_moov : topbox := mkBox KMoov 0 600 8 0 [] true [] false [] [mkTrak 1 0 10000000 true] 0 0 0 0.
Definition p_moof (durs : list N) : topbox :=
  mkBox KMoof 0 100 8 0 [] false [] false [mkTraf 1 0 [durs] 0] [] 0 0 0 0.
Definition p_big : list topbox := number_from 0 [px KFtyp 24; p_moov; p_moof [10]; px KMdat 2147483648].
Definition p_long : list topbox := number_from 0 [px KFtyp 24; p_moov; p_moof [3000000000; 3000000000]; px KMdat 16].

Definition first_ref (r : res file) : option (N * N * N) :=
  match r with
  | Ok f' => match f_sidxs f' with
             | sx :: _ => match b_refs (sx_box sx) with
                          | r :: _ => Some (dec_ref_word (enc_ref_word r), r_dur r)
                          | [] => None
                          end
             | [] => None
             end
  | _ => None
  end.

Lemma find_split {A} (p : A -> bool) l x :
  find p l = Some x -> exists before after, l = before ++ x :: after /\ p x = true /\ Forall (fun y => p y = false) before.
Proof.
  induction l as [|a t IH]; [discriminate|]. cbn [find]. destruct (p a) eqn:Pa.
  - intros [= <-]. exists [], t. auto.
  - intros H. destruct (IH H) as (b & c & -> & Px & Fb). exists (a :: b), c. repeat split; auto.
Qed.

Lemma find_none_all {A} (p : A -> bool) l : find p l = None -> Forall (fun y => p y = false) l.
Proof. intros H. apply Forall_forall. intros y Hy. exact (find_none p l H y Hy). Qed.

