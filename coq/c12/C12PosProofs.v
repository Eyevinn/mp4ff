(* C12PosProofs.v — the positions the assembly records (MediaSegment.StartPos, Fragment.StartPos) as positions of
   boxes in the stream: segment i starts where init ++ top-level sidx boxes ++ segments 0..i-1 end, and fragment j
   of it where additionally the styp / sidx boxes of the segment and its fragments 0..j-1 end.  Here: the
   invariant (PosInv), that the elementary steps of AddChild keep it when the box is added at the end of what the
   File emits, and how positions are read off by index.  Positions are the loop's own running uint64 sum (posn). *)
From V.lib Require Import Base.
From V.c12 Require Import C12Model C12Spec C12PartProofs C12EncProofs.

(* boxStartPos of DecodeFile's loop after the boxes l: pos = u64 (pos + size) from 0 *)
Definition posn (l : list topbox) : N := fold_left (fun p b => u64 (p + b_size b)) l 0.

Lemma posn_snoc l b : posn (l ++ [b]) = u64 (posn l + b_size b).
Proof. unfold posn. rewrite fold_left_app. reflexivity. Qed.

Definition seg_head (s : segment) : list topbox := opt_list (sg_styp s) ++ map sx_box (sg_sidxs s).

Lemma seg_boxes_head s : seg_boxes s = seg_head s ++ seg_fragment_boxes s.
Proof. unfold seg_boxes, seg_head. rewrite <- app_assoc. reflexivity. Qed.

Definition frs_boxes (frs : list fragment) : list topbox := concat (map fr_children frs).

Fixpoint frags_pos (st : list topbox) (frs : list fragment) : Prop :=
  match frs with
  | [] => True
  | fr :: t => fr_start fr = posn st /\ frags_pos (st ++ fr_children fr) t
  end.

Fixpoint segs_pos (st : list topbox) (segs : list segment) : Prop :=
  match segs with
  | [] => True
  | s :: t => sg_start s = posn st /\ frags_pos (st ++ seg_head s) (sg_frags s) /\ segs_pos (st ++ seg_boxes s) t
  end.

Definition hdr (f : file) : list topbox := init_boxes f ++ map sx_box (f_sidxs f).
Definition PosInv (f : file) : Prop := segs_pos (hdr f) (f_segs f).

(* what the File emits in front of its mfra *)
Definition body (f : file) : list topbox := hdr f ++ concat (map seg_boxes (f_segs f)).

Lemma frags_pos_snoc frs : forall st fr,
  frags_pos st (frs ++ [fr]) <-> frags_pos st frs /\ fr_start fr = posn (st ++ frs_boxes frs).
Proof.
  induction frs as [|x t IH]; intros st fr.
  - cbn. rewrite app_nil_r. tauto.
  - cbn [app frags_pos]. rewrite IH. unfold frs_boxes. cbn [map concat]. rewrite <- app_assoc. tauto.
Qed.

Lemma segs_pos_snoc segs : forall st s,
  segs_pos st (segs ++ [s]) <->
  segs_pos st segs /\ sg_start s = posn (st ++ concat (map seg_boxes segs)) /\
  frags_pos (st ++ concat (map seg_boxes segs) ++ seg_head s) (sg_frags s).
Proof.
  induction segs as [|x t IH]; intros st s.
  - cbn. rewrite !app_nil_r. tauto.
  - cbn [app segs_pos]. rewrite IH. cbn [map concat]. rewrite <- !app_assoc. tauto.
Qed.

Lemma pos_nosegs f : f_segs f = [] -> PosInv f.
Proof. intros H. unfold PosInv. rewrite H. exact I. Qed.

Lemma pos_add_segment f styp pos :
  PosInv f -> pos = posn (body f) -> PosInv (add_segment f (new_segment styp pos)).
Proof. intros P E. apply segs_pos_snoc. split; [exact P|]. split; [exact E|exact I]. Qed.

Lemma body_add_segment f styp pos : body (add_segment f (new_segment styp pos)) = body f ++ opt_list styp.
Proof.
  unfold body, hdr, init_boxes. cbn [add_segment f_init f_sidxs f_segs]. rewrite concat_map_snoc.
  unfold seg_boxes. cbn. rewrite app_nil_r, <- !app_assoc. reflexivity.
Qed.

Lemma pos_started f pos :
  PosInv f -> pos = posn (body f) -> PosInv (started f pos) /\ body (started f pos) = body f.
Proof.
  intros P E. destruct (started_cases f pos) as [-> | ->]; [auto|].
  split; [apply pos_add_segment; assumption|]. rewrite body_add_segment. apply app_nil_r.
Qed.

(* a sidx behind the styp / the sidx boxes of a segment that has no fragment yet *)
Lemma pos_seg_sidx f segs s sx :
  f_segs f = segs ++ [s] -> sg_frags s = [] -> PosInv f ->
  PosInv (set_segs f (segs ++ [seg_add_sidx s sx])) /\
  body (set_segs f (segs ++ [seg_add_sidx s sx])) = body f ++ [sx_box sx].
Proof.
  intros Es Hn P. unfold PosInv, body in *. change (hdr (set_segs f _)) with (hdr f). cbn [set_segs f_segs]. rewrite Es in *.
  split.
  - apply segs_pos_snoc in P. apply segs_pos_snoc. cbn [seg_add_sidx sg_start sg_frags]. rewrite Hn. cbn. tauto.
  - rewrite !concat_map_snoc. unfold seg_boxes, seg_fragment_boxes. cbn [seg_add_sidx sg_styp sg_sidxs sg_frags].
    rewrite Hn, map_app. cbn. rewrite !app_nil_r, <- !app_assoc. reflexivity.
Qed.

Lemma pos_pushed f opens pos b f' :
  pushed f opens pos b f' -> PosInv f -> pos = posn (body f) ->
  PosInv f' /\ body f' = body f ++ [b].
Proof.
  intros (segs & s & frs & fr & Es & H & ->) P E. unfold PosInv, body in *. change (hdr (set_segs f _)) with (hdr f).
  cbn [set_segs f_segs]. rewrite Es in *. rewrite concat_map_snoc in *. split.
  - apply segs_pos_snoc in P. destruct P as (P1 & P2 & P3). apply segs_pos_snoc. split; [exact P1|]. split; [exact P2|].
    change (seg_head (with_frags s _)) with (seg_head s). cbn [with_frags sg_frags].
    assert (Ffr : fr_start (frag_add_child fr b) = fr_start fr) by (unfold frag_add_child; destruct (b_kind b); reflexivity).
    apply frags_pos_snoc. rewrite Ffr. destruct (opens s).
    + destruct H as [-> ->]. split; [exact P3|]. rewrite E, seg_boxes_head, <- !app_assoc. reflexivity.
    + rewrite H in P3. apply frags_pos_snoc in P3. exact P3.
  - rewrite !concat_map_snoc, !seg_boxes_head, (sfb_pushed _ _ _ _ _ _ H), <- !app_assoc. reflexivity.
Qed.

Lemma frags_pos_nth frs : forall st j fr,
  frags_pos st frs -> nth_error frs j = Some fr -> fr_start fr = posn (st ++ frs_boxes (firstn j frs)).
Proof.
  induction frs as [|x t IH]; intros st j fr P H; [destruct j; discriminate|].
  destruct P as [P1 P2]. destruct j as [|j].
  - injection H as <-. cbn. rewrite app_nil_r. exact P1.
  - cbn [nth_error] in H. rewrite (IH _ _ _ P2 H). unfold frs_boxes. cbn [firstn map concat]. rewrite <- app_assoc. reflexivity.
Qed.

Lemma segs_pos_nth segs : forall st i s,
  segs_pos st segs -> nth_error segs i = Some s ->
  sg_start s = posn (st ++ concat (map seg_boxes (firstn i segs))) /\
  forall j fr, nth_error (sg_frags s) j = Some fr ->
    fr_start fr = posn (st ++ concat (map seg_boxes (firstn i segs)) ++ seg_head s ++ frs_boxes (firstn j (sg_frags s))).
Proof.
  induction segs as [|x t IH]; intros st i s P H; [destruct i; discriminate|].
  destruct P as (P1 & P2 & P3). destruct i as [|i].
  - injection H as <-. cbn [firstn map concat app]. rewrite app_nil_r. split; [exact P1|].
    intros j fr Hj. rewrite (frags_pos_nth _ _ _ _ P2 Hj), <- app_assoc. reflexivity.
  - cbn [nth_error] in H. destruct (IH _ _ _ P3 H) as [Q1 Q2]. cbn [firstn map concat].
    rewrite <- !app_assoc in *. split; [exact Q1|]. intros j fr Hj. rewrite (Q2 j fr Hj). rewrite <- !app_assoc. reflexivity.
Qed.

(* without wrap-around: the running position is the sum of the sizes *)
Lemma posn_mod l : posn l = sumN (map b_size l) mod 18446744073709551616.
Proof.
  induction l as [|b l IH] using rev_ind; [reflexivity|].
  rewrite posn_snoc, IH, map_app, sumN_app. cbn [map sumN]. unfold u64. rewrite N.add_0_r.
  rewrite N.add_mod_idemp_l by discriminate. reflexivity.
Qed.

Lemma posn_small l : sumN (map b_size l) < 18446744073709551616 -> posn l = sumN (map b_size l).
Proof. intros H. rewrite posn_mod. apply N.mod_small. exact H. Qed.
