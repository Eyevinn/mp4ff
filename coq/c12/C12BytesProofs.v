(* C12BytesProofs.v — decode + File.Encode (segment mode) is the identity on the layouts of
   C12Bytes.layout_ok: box for box (reencode_boxes) and, when every box re-encodes to its own bytes
   and single-trun fragments carry the data offset SetTrunDataOffsets computes, byte for byte
   (reencode_identical).  The same walk shows that the recorded positions are stream positions (PosInv). *)
From V.lib Require Import Base.
From V.c05 Require Import C05CodecModel.
From V.c12 Require Import C12Model C12Spec C12PartProofs C12EncProofs C12PosProofs C12ShapeProofs C12Bytes.

Definition asb (segs : list segment) : list topbox := concat (map seg_boxes segs).
Definition emitted (f : file) : list topbox := body f ++ opt_list (f_mfra f).

Lemma emitted_eq f :
  init_boxes f ++ map sx_box (f_sidxs f) ++ concat (map seg_boxes (f_segs f)) ++ opt_list (f_mfra f) = emitted f.
Proof. unfold emitted, body, hdr. rewrite <- !app_assoc. reflexivity. Qed.

(* after the prefix pre of a layout_ok sequence: what the File would emit is pre, and every recorded position is
   the position in pre of the box it was recorded for *)
Definition Linv (st : lst) (f : file) (pre : list topbox) : Prop :=
  PosInv f /\
  match st with
  | L0 => pre = [] /\ f_init f = None /\ f_ftyp f = None /\ f_sidxs f = [] /\ f_segs f = [] /\ f_mfra f = None
  | L1 => exists ft, pre = [ft] /\ f_ftyp f = Some ft /\ f_init f = None /\ f_sidxs f = [] /\ f_segs f = [] /\ f_mfra f = None
  | L2 => body f = pre /\ f_mfra f = None /\ f_segs f = []
  | L3s => body f = pre /\ f_mfra f = None /\ f_fragmented f = true /\ exists segs s, f_segs f = segs ++ [s] /\ sg_frags s = []
  | L3m => body f = pre /\ f_mfra f = None /\ f_fragmented f = true /\ f_segs f <> []
  | L4 => body f ++ opt_list (f_mfra f) = pre
  end.

(* the states in which no mfra has been seen and everything read so far is emitted *)
Definition open_st (st : lst) : Prop := match st with L1 | L4 => False | _ => True end.

Lemma Linv_open st f pre :
  Linv st f pre -> open_st st ->
  PosInv f /\ body f = pre /\ f_mfra f = None /\ (f_segs f = [] \/ f_fragmented f = true).
Proof.
  intros [P I] Ho. split; [exact P|]. destruct st; try contradiction.
  - destruct I as (-> & Hi & _ & Hs & Hg & Hm). unfold body, hdr, init_boxes. rewrite Hi, Hs, Hg. auto.
  - destruct I as (B & M & S). auto.
  - destruct I as (B & M & F & _). auto.
  - destruct I as (B & M & F & _). auto.
Qed.

(* the automaton, read by the kind of the box *)
Lemma lstep_inv st b st' :
  lstep st b = Some st' ->
  match b_kind b with
  | KFtyp => st = L0 /\ st' = L1
  | KMoov => (st = L0 \/ st = L1) /\ b_stts_empty b = true /\ st' = L2
  | KSidx => (st = L0 \/ st = L2) /\ st' = L2 \/ st = L3s /\ st' = L3s
  | KStyp => open_st st /\ st' = L3s
  | KMoof | KEmsg => open_st st /\ st' = L3m
  | KMdat => st = L3m /\ st' = L3m
  | KMfra => open_st st /\ st' = L4
  | KOther => False
  end.
Proof.
  unfold lstep. destruct (b_kind b), st; try discriminate; try (destruct (b_stts_empty b); try discriminate);
    intros [= <-]; cbn; auto.
Qed.

Lemma started_fragmented f pos :
  f_segs f = [] \/ f_fragmented f = true -> f_fragmented (started f pos) = true /\ f_mfra (started f pos) = f_mfra f.
Proof.
  intros H. unfold started, seg_start. destruct H as [H | H].
  - rewrite H, orb_true_r. auto.
  - destruct (_ || _); auto.
Qed.

(* an emsg or moof in an open state *)
Lemma step_media f0 opens pos b f' pre :
  pushed (started f0 pos) opens pos b f' ->
  PosInv f0 -> body f0 = pre -> f_mfra f0 = None -> f_segs f0 = [] \/ f_fragmented f0 = true -> pos = posn pre ->
  Linv L3m f' (pre ++ [b]).
Proof.
  intros A P B M Hf E. rewrite <- B in *. destruct (pos_started f0 pos P E) as [P1 B1]. rewrite <- B1 in *.
  destruct (pos_pushed _ _ _ _ _ A P1 E) as [P2 B2]. destruct (started_fragmented f0 pos Hf) as [F1 M1].
  destruct (pushed_nonnil _ _ _ _ _ A) as [_ N]. destruct (pushed_top _ _ _ _ _ A) as [? ->].
  split; [exact P2|]. cbn [Linv set_segs f_mfra f_fragmented] in *. rewrite M1. auto.
Qed.

Lemma step_switch st f b pos f' pre st' :
  Linv st f pre -> pos = posn pre -> lstep st b = Some st' -> add_child_switch f b pos = Ok f' ->
  Linv st' f' (pre ++ [b]).
Proof.
  intros I E St A. apply lstep_inv in St. apply add_child_switch_inv in A. destruct (b_kind b).
  - (* ftyp: the first box *)
    destruct St as [-> ->]. destruct I as (P & -> & Hi & _ & Hs & Hg & Hm). subst f'. split; [exact P|]. cbn. eauto 10.
  - (* styp *)
    destruct St as [Ho ->]. destruct (Linv_open _ _ _ I Ho) as (P & B & M & _). subst f'. rewrite <- B in *.
    split; [apply pos_add_segment; assumption|]. cbn [Linv]. rewrite body_add_segment.
    repeat split; auto. exists (f_segs f), (new_segment (Some b) pos). auto.
  - (* moov *)
    destruct St as (Hst & Es & ->). rewrite Es in A. subst f'.
    assert (H : f_sidxs f = [] /\ f_segs f = [] /\ f_mfra f = None /\ pre = opt_list (f_ftyp f)).
    { destruct I as [_ I]. destruct Hst as [-> | ->].
      - destruct I as (-> & _ & -> & Hs & Hg & Hm). auto.
      - destruct I as (ft & -> & -> & _ & Hs & Hg & Hm). auto. }
    destruct H as (Hs & Hg & Hm & ->). split; [apply pos_nosegs; exact Hg|].
    cbn. unfold body, hdr, init_boxes. cbn [f_init f_sidxs f_segs]. rewrite Hs, Hg. cbn. rewrite !app_nil_r. auto.
  - (* sidx: at top level, or directly behind a styp / the sidx boxes that follow it *)
    destruct St as [[Hst ->] | [-> ->]].
    + assert (Ho : open_st st) by (destruct Hst as [-> | ->]; exact Logic.I).
      destruct (Linv_open _ _ _ I Ho) as (P & B & M & _).
      assert (Hg : f_segs f = []) by (destruct I as [_ I]; destruct Hst as [-> | ->]; apply I).
      destruct A as [[_ ->] | (segs & s & Es & _)]; [|rewrite Hg in Es; destruct segs; discriminate].
      split; [apply pos_nosegs; exact Hg|]. cbn. rewrite <- B. unfold body, hdr, init_boxes. cbn [f_init f_sidxs f_segs].
      rewrite Hg, map_app. cbn. rewrite !app_nil_r, <- app_assoc. auto.
    + destruct I as (P & B & M & Fr & segs & s & Es & Hn).
      destruct A as [[Hg _] | (segs' & s' & Es' & ->)]; [rewrite Hg in Es; destruct segs; discriminate|].
      rewrite Es in Es'. apply app_inj_tail in Es'. destruct Es' as [<- <-].
      destruct (pos_seg_sidx _ _ _ (mkSidx b (u64 (pos + b_first_offset b + b_size b))) Es Hn P) as [P' B'].
      split; [exact P'|]. cbn [Linv set_segs f_mfra f_fragmented f_segs]. rewrite B', B. eauto 8.
  - (* moof *)
    destruct St as [Ho ->]. destruct (Linv_open _ _ _ I Ho) as (P & B & M & Hf). exact (step_media (set_fragmented f) _ _ _ _ _ A P B M (or_intror eq_refl) E).
  - (* mdat: inside a fragmented file only *)
    destruct St as [-> ->]. destruct I as (P & B & M & Fr & _). rewrite Fr in A. rewrite <- B in *.
    destruct (pos_pushed _ _ _ _ _ A P E) as [P' B']. destruct (pushed_nonnil _ _ _ _ _ A) as [_ N].
    destruct (pushed_top _ _ _ _ _ A) as [? ->]. split; [exact P'|]. cbn [Linv set_segs f_mfra f_fragmented] in *. auto.
  - (* emsg *)
    destruct St as [Ho ->]. destruct (Linv_open _ _ _ I Ho) as (P & B & M & Hf). exact (step_media f _ _ _ _ _ A P B M Hf E).
  - (* mfra: the last box *)
    destruct St as [Ho ->]. destruct (Linv_open _ _ _ I Ho) as (P & B & M & _). subst f'. split; [exact P|].
    cbn. change (body _) with (body f). rewrite B. reflexivity.
  - destruct St.
Qed.

Lemma add_children_layout bs : forall st f pos f' pre st',
  Linv st f pre -> pos = posn pre -> lrun st bs = Some st' -> add_children f pos bs = Ok f' -> Linv st' f' (pre ++ bs).
Proof.
  induction bs as [|b t IH]; intros st f pos f' pre st' I E R A.
  - cbn in R, A. injection R as <-. injection A as <-. rewrite app_nil_r. exact I.
  - cbn [lrun] in R. destruct (lstep st b) as [st1|] eqn:St; [|discriminate].
    cbn [add_children] in A. destruct (add_child f b pos) as [f1| | |] eqn:A1; cbn [rbind] in A; try discriminate.
    destruct (add_child_inv _ _ _ _ A1) as (f2 & A2 & ->).
    assert (I1 : Linv st1 (with_children f2 (f_children f2 ++ [b])) (pre ++ [b])).
    { pose proof (step_switch _ _ _ _ _ _ _ I E St A2) as I2. destruct st1; exact I2. }
    rewrite E, <- posn_snoc in A. specialize (IH _ _ _ _ _ _ I1 eq_refl R A). rewrite <- app_assoc in IH. exact IH.
Qed.

Lemma assemble_layout o bs f :
  assemble o bs = Ok f -> layout_ok bs = true -> emitted f = bs /\ PosInv f.
Proof.
  intros A Hl. destruct (assemble_inv _ _ _ A) as (tf & f0 & _ & D & ->).
  apply decode_loop_add_children in D. unfold layout_ok in Hl.
  destruct (lrun L0 bs) as [st'|] eqn:R; [|discriminate].
  assert (I0 : Linv L0 (empty_file (o_start_on_moof o) tf) []) by (split; [exact I|cbn; auto 10]).
  destruct (add_children_layout _ _ _ _ _ _ _ I0 eq_refl R D) as [P I1]. split; [|exact P].
  change (emitted (clear_tfra f0)) with (emitted f0). unfold emitted. cbn [app] in I1. destruct st'; try discriminate.
  - destruct I1 as (-> & Hi & _ & Hs & Hg & Hm). unfold body, hdr, init_boxes. rewrite Hi, Hs, Hg, Hm. reflexivity.
  - destruct I1 as (B & M & _). rewrite B, M. apply app_nil_r.
  - destruct I1 as (B & M & _). rewrite B, M. apply app_nil_r.
  - destruct I1 as (B & M & _). rewrite B, M. apply app_nil_r.
  - exact I1.
Qed.

Lemma reencode_boxes o bs f out :
  assemble o bs = Ok f -> layout_ok bs = true -> encode_segment_mode f = Ok out -> out = bs.
Proof.
  intros A Hl E. rewrite (proj1 (encode_segment_mode_ok _ _ E)), emitted_eq. exact (proj1 (assemble_layout _ _ _ A Hl)).
Qed.

Lemma bytes_eqb_eq a : forall b, bytes_eqb a b = true -> a = b.
Proof.
  induction a as [|x a IH]; intros [|y b]; cbn; try discriminate; [reflexivity|].
  intros H. apply andb_true_iff in H. destruct H as [H1 H2]. apply N.eqb_eq in H1. subst. f_equal. auto.
Qed.

Lemma doffs_ok_mid env xs m d ys : doffs_ok env (xs ++ m :: d :: ys) = true -> pair_ok env m d = true.
Proof.
  induction xs as [|x xs IH]; cbn [app doffs_ok]; intros H; apply andb_true_iff in H; destruct H as [H1 H2].
  - exact H1.
  - apply IH. exact H2.
Qed.

Lemma In_concat_split {A} (ll : list (list A)) l : In l ll -> exists a b, concat ll = a ++ l ++ b.
Proof.
  intros H. apply in_split in H. destruct H as (l1 & l2 & ->). exists (concat l1), (concat l2).
  rewrite concat_app. reflexivity.
Qed.

(* the children of a fragment lie side by side in what the File emits *)
Lemma frag_in_emitted f s fr :
  In s (f_segs f) -> In fr (sg_frags s) -> exists a b, emitted f = a ++ fr_children fr ++ b.
Proof.
  intros Hs Hf.
  destruct (In_concat_split (map fr_children (sg_frags s)) (fr_children fr) (in_map _ _ _ Hf)) as (a1 & b1 & E1).
  destruct (In_concat_split (map seg_boxes (f_segs f)) (seg_boxes s) (in_map _ _ _ Hs)) as (a2 & b2 & E2).
  unfold emitted, body. rewrite E2, seg_boxes_head. unfold seg_fragment_boxes. rewrite E1.
  exists (hdr f ++ a2 ++ seg_head s ++ a1), (b1 ++ b2 ++ opt_list (f_mfra f)).
  rewrite <- !app_assoc. reflexivity.
Qed.

Section Bytes.
Variable env : N -> binfo.

(* the decoded box encodes to the bytes it came from *)
Definition same (b : topbox) : Prop := enc0 env b = in0 env b.

Lemma map_same l : Forall same l -> map (enc0 env) l = map (in0 env) l.
Proof. induction 1 as [|b l H _ IH]; [reflexivity|]. cbn [map]. rewrite H, IH. reflexivity. Qed.

Lemma enc_child_in fr m d b :
  fr_moof fr = Some m -> fr_mdat fr = Some d -> b_kind m = KMoof -> b_kind d = KMdat ->
  pair_ok env m d = true -> same b -> enc_child env fr b = in0 env b.
Proof.
  intros Hm Hd Km Kd P S. unfold enc_child. rewrite Hm, Hd.
  destruct (bi_doff (env (b_tag b))) as [off|] eqn:Eo; [|exact S].
  destruct (kind_eqb (b_kind b) KMoof && (b_tag b =? b_tag m)) eqn:C; [|exact S].
  apply andb_true_iff in C. destruct C as [_ C]. apply N.eqb_eq in C.
  unfold pair_ok in P. rewrite Km, Kd in P. cbn [kind_eqb andb] in P.
  unfold same, in0, enc0 in *. rewrite C in *. rewrite Eo in P. rewrite S. apply bytes_eqb_eq. exact P.
Qed.

Definition frag_good (fr : fragment) : Prop := frag_bytes env fr = Ok (map (in0 env) (fr_children fr)).

Lemma frags_bytes_good frs :
  Forall frag_good frs -> frags_bytes env frs = Ok (map (in0 env) (concat (map fr_children frs))).
Proof.
  induction 1 as [|fr t H _ IH]; [reflexivity|]. cbn [frags_bytes map concat]. rewrite H, IH. cbn [rbind].
  rewrite map_app. reflexivity.
Qed.

Lemma segs_bytes_good segs :
  Forall (fun s => Forall frag_good (sg_frags s)) segs -> Forall same (asb segs) ->
  segs_bytes env segs = Ok (map (in0 env) (asb segs)).
Proof.
  induction 1 as [|s t H _ IH]; intros St; [reflexivity|]. unfold asb in *. cbn [map concat] in *.
  apply Forall_app in St. destruct St as [Ss St]. apply Forall_app in Ss. destruct Ss as [S1 Ss].
  apply Forall_app in Ss. destruct Ss as [S2 _].
  cbn [segs_bytes]. unfold seg_bytes. rewrite (frags_bytes_good _ H). cbn [rbind]. rewrite (IH St). cbn [rbind].
  unfold seg_boxes at 2, seg_fragment_boxes. rewrite !map_app, (map_same _ S1), (map_same _ S2), <- !app_assoc. reflexivity.
Qed.

Lemma file_bytes_good f :
  Forall (fun s => Forall frag_good (sg_frags s)) (f_segs f) -> Forall same (emitted f) ->
  file_bytes env f = Ok (map (in0 env) (emitted f)).
Proof.
  intros Hf St. unfold emitted, body, hdr in *. apply Forall_app in St. destruct St as [St S4].
  apply Forall_app in St. destruct St as [St S3]. apply Forall_app in St. destruct St as [S1 S2].
  unfold file_bytes. rewrite (segs_bytes_good _ Hf S3). cbn [rbind]. fold (init_boxes f).
  rewrite !map_app, (map_same _ S1), (map_same _ S2), (map_same _ S4), <- !app_assoc. reflexivity.
Qed.

Lemma reencode_identical o bs f out :
  assemble o bs = Ok f -> layout_ok bs = true -> encode_segment_mode f = Ok out ->
  forallb (stable env) bs = true -> doffs_ok env bs = true ->
  out = bs /\ file_bytes env f = Ok (map (in0 env) bs) /\ reencode env o bs = Ok (concat (map (in0 env) bs)).
Proof.
  intros A Hl E Hst Hd. destruct (assemble_layout _ _ _ A Hl) as [Em _].
  split; [exact (reencode_boxes _ _ _ _ A Hl E)|].
  assert (St : Forall same (emitted f)).
  { rewrite Em. apply Forall_forall. intros b Hb. apply bytes_eqb_eq. exact (proj1 (forallb_forall _ _) Hst b Hb). }
  assert (Fb : file_bytes env f = Ok (map (in0 env) bs)).
  { rewrite <- Em. apply file_bytes_good; [|exact St].
    apply Forall_forall. intros s Hs. apply Forall_forall. intros fr Hfr.
    pose proof (frag_shape_in _ _ _ _ _ A Hs Hfr) as Hsh.
    destruct (proj1 (Forall_forall _ _) (proj1 (Forall_forall _ _) (proj2 (encode_segment_mode_ok _ _ E)) s Hs) fr Hfr) as [Cm Cd].
    destruct (fr_moof fr) as [m|] eqn:Fm; [|discriminate]. destruct (fr_mdat fr) as [d|] eqn:Fd; [|discriminate].
    destruct Hsh as (es1 & es2 & _ & _ & Hch). rewrite Fm, Fd in Hch. destruct Hch as (Hch & Km & Kd).
    destruct (frag_in_emitted _ _ _ Hs Hfr) as (a & b & Ein). rewrite Ein in St. rewrite Em, Hch in Ein.
    assert (P : pair_ok env m d = true).
    { apply (doffs_ok_mid env (a ++ es1) m d (es2 ++ b)). rewrite Ein in Hd. rewrite <- !app_assoc in Hd |- *. exact Hd. }
    apply Forall_app in St. destruct St as [_ St]. apply Forall_app in St. destruct St as [St _]. pose proof (proj1 (Forall_forall _ _) St) as St'.
    unfold frag_good, frag_bytes. rewrite Fm, Fd. f_equal. apply map_ext_in. intros c Hc'.
    exact (enc_child_in fr m d c Fm Fd Km Kd P (St' c Hc')). }
  split; [exact Fb|]. unfold reencode. rewrite A. cbn [rbind]. rewrite Fb. reflexivity.
Qed.
End Bytes.
