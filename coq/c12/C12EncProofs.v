(* C12EncProofs.v — File.Encode in segment mode: what is written, in which order. *)
From V.lib Require Import Base.
From V.c12 Require Import C12Model C12Spec C12PartProofs.

Definition init_boxes (f : file) : list topbox := match f_init f with Some l => l | None => [] end.

(* what MediaSegment.Encode writes when no fragment is rejected *)
Definition seg_boxes (s : segment) : list topbox :=
  opt_list (sg_styp s) ++ map sx_box (sg_sidxs s) ++ seg_fragment_boxes s.

Definition nonmedia (b : topbox) : Prop := is_media b = false.

(* Fragment.Encode succeeds only on a fragment that holds a moof and an mdat *)
Definition complete (fr : fragment) : Prop := is_some (fr_moof fr) = true /\ is_some (fr_mdat fr) = true.

Lemma encode_fragments_ok frs : forall out,
  encode_fragments frs = Ok out -> out = concat (map fr_children frs) /\ Forall complete frs.
Proof.
  induction frs as [|fr t IH]; intros out.
  - cbn. intros [= <-]. auto.
  - cbn [encode_fragments]. unfold encode_fragment.
    destruct (fr_moof fr) eqn:M; [|discriminate]. destruct (fr_mdat fr) eqn:D; [|discriminate]. cbn [rbind].
    destruct (encode_fragments t) as [r| | |]; cbn [rbind]; try discriminate.
    intros [= <-]. destruct (IH r eq_refl) as [-> H]. split; [reflexivity|]. constructor; [|exact H].
    unfold complete. rewrite M, D. auto.
Qed.

Lemma encode_segments_ok ss : forall out,
  encode_segments ss = Ok out ->
  out = concat (map seg_boxes ss) /\ Forall (fun s => Forall complete (sg_frags s)) ss.
Proof.
  induction ss as [|s t IH]; intros out.
  - cbn. intros [= <-]. auto.
  - cbn [encode_segments]. unfold encode_segment.
    destruct (encode_fragments (sg_frags s)) as [frs| | |] eqn:E; cbn [rbind]; try discriminate.
    destruct (encode_segments t) as [r| | |]; cbn [rbind]; try discriminate.
    intros [= <-]. destruct (encode_fragments_ok _ _ E) as [-> Hc]. destruct (IH r eq_refl) as [-> H]. split; [reflexivity|]. constructor; assumption.
Qed.

Lemma encode_segment_mode_ok f out :
  encode_segment_mode f = Ok out ->
  out = init_boxes f ++ map sx_box (f_sidxs f) ++ concat (map seg_boxes (f_segs f)) ++ opt_list (f_mfra f) /\
  Forall (fun s => Forall complete (sg_frags s)) (f_segs f).
Proof.
  unfold encode_segment_mode, init_boxes, encode_init.
  destruct (f_init f); cbn [rbind];
    (destruct (encode_segments (f_segs f)) as [s| | |] eqn:E; cbn [rbind]; try discriminate;
     intros [= <-]; destruct (encode_segments_ok _ _ E) as [-> H]; auto).
Qed.

Definition seg_nm (s : segment) : Prop :=
  Forall nonmedia (opt_list (sg_styp s)) /\ Forall nonmedia (map sx_box (sg_sidxs s)).

Definition nonmedia_ok (f : file) : Prop :=
  Forall nonmedia (opt_list (f_ftyp f)) /\
  Forall nonmedia (init_boxes f) /\
  Forall nonmedia (map sx_box (f_sidxs f)) /\
  Forall nonmedia (opt_list (f_mfra f)) /\
  Forall seg_nm (f_segs f).

Lemma Forall_snoc {A} (P : A -> Prop) l x : Forall P l -> P x -> Forall P (l ++ [x]).
Proof. intros. apply Forall_app. auto. Qed.

Lemma nonmedia_add_segment f styp pos :
  nonmedia_ok f -> Forall nonmedia (opt_list styp) -> nonmedia_ok (add_segment f (new_segment styp pos)).
Proof.
  intros (H0 & H1 & H2 & H3 & H4) Hs. repeat split; auto. apply Forall_snoc; [exact H4|]. split; [exact Hs|constructor].
Qed.

Lemma nonmedia_started f pos : nonmedia_ok f -> nonmedia_ok (started f pos).
Proof.
  intros H. destruct (started_cases f pos) as [-> | ->]; [exact H|]. apply nonmedia_add_segment; [exact H|constructor].
Qed.

Lemma nonmedia_pushed f opens pos b f' : pushed f opens pos b f' -> nonmedia_ok f -> nonmedia_ok f'.
Proof.
  intros (segs & s & frs & fr & Es & _ & ->) (H0 & H1 & H2 & H3 & H4). repeat split; auto. cbn [set_segs f_segs].
  rewrite Es in H4. apply Forall_app in H4. destruct H4 as [H4 H5]. apply Forall_snoc; [exact H4|]. exact (Forall_inv H5).
Qed.

Lemma add_child_switch_nonmedia f b pos f' :
  nonmedia_ok f -> add_child_switch f b pos = Ok f' -> nonmedia_ok f'.
Proof.
  intros H A. apply add_child_switch_inv in A.
  destruct (b_kind b) eqn:K;
    try (assert (Nb : nonmedia b) by (unfold nonmedia, is_media; rewrite K; reflexivity)).
  - (* ftyp *) subst f'. destruct H as (H0 & H1 & H2 & H3 & H4). repeat split; auto. constructor; [exact Nb|constructor].
  - (* styp *) subst f'. apply nonmedia_add_segment; [exact H|]. constructor; [exact Nb|constructor].
  - (* moov *) subst f'. destruct H as (H0 & H1 & H2 & H3 & H4). destruct (b_stts_empty b); repeat split; auto.
    apply Forall_snoc; assumption.
  - (* sidx *)
    destruct H as (H0 & H1 & H2 & H3 & H4). destruct A as [[Es ->] | (segs & s & Es & ->)]; repeat split; auto.
    + cbn [f_sidxs]. rewrite map_app. apply Forall_snoc; assumption.
    + cbn [set_segs f_segs]. rewrite Es in H4. apply Forall_app in H4. destruct H4 as [H4 H5]. apply Forall_inv in H5.
      apply Forall_snoc; [exact H4|]. split; [apply H5|]. cbn [seg_add_sidx sg_sidxs]. rewrite map_app. apply Forall_snoc; [apply H5|exact Nb].
  - (* moof *) exact (nonmedia_pushed _ _ _ _ _ A (nonmedia_started (set_fragmented f) pos H)).
  - (* mdat *)
    destruct (f_fragmented f); [exact (nonmedia_pushed _ _ _ _ _ A H)|]. subst f'. destruct (match f_mdat f with Some _ => _ | None => _ end); exact H.
  - (* emsg *) exact (nonmedia_pushed _ _ _ _ _ A (nonmedia_started _ pos H)).
  - (* mfra *) subst f'. destruct H as (H0 & H1 & H2 & H3 & H4). repeat split; auto. constructor; [exact Nb|constructor].
  - subst f'. exact H.
Qed.

Lemma add_children_nonmedia bs : forall f pos f',
  nonmedia_ok f -> add_children f pos bs = Ok f' -> nonmedia_ok f'.
Proof.
  induction bs as [|b t IH]; intros f pos f' H; cbn [add_children].
  - intros [= <-]. exact H.
  - destruct (add_child f b pos) as [f1| | |] eqn:A; cbn [rbind]; try discriminate.
    apply IH. destruct (add_child_inv _ _ _ _ A) as (f2 & A2 & ->). exact (add_child_switch_nonmedia _ _ _ _ H A2).
Qed.

Lemma assemble_nonmedia o bs f : assemble o bs = Ok f -> nonmedia_ok f.
Proof.
  intros H. destruct (assemble_inv _ _ _ H) as (tf & f0 & _ & D & ->).
  apply decode_loop_add_children in D. apply add_children_nonmedia in D; [exact D|]. repeat split; constructor.
Qed.

Lemma filter_nonmedia l : Forall nonmedia l -> filter is_media l = [].
Proof.
  induction 1 as [|b t Hb _ IH]; [reflexivity|]. cbn [filter]. rewrite Hb. exact IH.
Qed.

Lemma frag_media_all_media bs : forall fragd, Forall (fun b => is_media b = true) (frag_media fragd bs).
Proof.
  induction bs as [|b t IH]; intros fragd; [constructor|].
  cbn [frag_media]. apply Forall_app. split; [|apply IH].
  destruct (is_media b) eqn:M; cbn [andb]; [|constructor].
  destruct (fragd || is_marker b); constructor; [exact M|constructor].
Qed.

Lemma filter_all_media l : Forall (fun b => is_media b = true) l -> filter is_media l = l.
Proof.
  induction 1 as [|b t Hb _ IH]; [reflexivity|]. cbn [filter]. rewrite Hb, IH. reflexivity.
Qed.

Lemma filter_concat {A} (p : A -> bool) (ll : list (list A)) :
  filter p (concat ll) = concat (map (filter p) ll).
Proof.
  induction ll as [|l t IH]; [reflexivity|]. cbn [concat map]. rewrite filter_app, IH. reflexivity.
Qed.

Lemma filter_seg_boxes segs :
  Forall seg_nm segs ->
  filter is_media (concat (map seg_boxes segs)) = filter is_media (concat (map seg_fragment_boxes segs)).
Proof.
  induction 1 as [|s t [H1 H2] _ IH]; [reflexivity|].
  cbn [map concat]. rewrite !filter_app, IH. unfold seg_boxes. rewrite !filter_app.
  rewrite (filter_nonmedia _ H1), (filter_nonmedia _ H2). reflexivity.
Qed.

(* File.Encode in segment mode: init boxes, top-level sidx boxes, per segment styp / sidx boxes /
   fragment children, then mfra; and the emsg/moof/mdat boxes written are exactly the input's,
   in order *)
Lemma segment_mode_encode o bs f out :
  assemble o bs = Ok f ->
  encode_segment_mode f = Ok out ->
  out = init_boxes f ++ map sx_box (f_sidxs f) ++ concat (map seg_boxes (f_segs f)) ++ opt_list (f_mfra f) /\
  filter is_media out = frag_media false bs /\
  Forall (fun s => Forall (fun fr => is_some (fr_moof fr) = true /\ is_some (fr_mdat fr) = true) (sg_frags s)) (f_segs f).
Proof.
  intros A E. destruct (encode_segment_mode_ok _ _ E) as [-> Hc]. split; [reflexivity|]. split; [|exact Hc].
  destruct (assemble_nonmedia _ _ _ A) as (_ & H1 & H2 & H3 & H4).
  rewrite !filter_app, (filter_nonmedia _ H1), (filter_nonmedia _ H2), (filter_nonmedia _ H3), app_nil_r.
  cbn [app]. rewrite (filter_seg_boxes _ H4).
  change (concat (map seg_fragment_boxes (f_segs f))) with (file_fragment_boxes f).
  rewrite (partition _ _ _ A). apply filter_all_media, frag_media_all_media.
Qed.
