(* C02AggOptProofs.v — the two state changes of Fragment.Encode on the ordered tree:
   OptimizeTfhdTrun reaches a state it leaves alone (`optimised`), SetTrunDataOffsets changes data offsets only
   (`moof_dv`), keeps every size and is idempotent.  Trees before and after a change are compared child by child
   (`tc_rel`, `mc_rel`: same children in the same order, up to a relation on the tfhd and on the trun children). *)
From V.lib Require Import Base.
From V.c05 Require Import C05Model C05FragModel C05CodecModel C05OptProofs.
From V.c02 Require Import C02AggModel C02AggSizeProofs.

Definition alleq_dur (ss : list sample) : bool :=
  match ss with [] => true | s0 :: _ => forallb (fun s => s_dur s =? s_dur s0) ss end.
Definition alleq_size (ss : list sample) : bool :=
  match ss with [] => true | s0 :: _ => forallb (fun s => s_size s =? s_size s0) ss end.
Definition alleq_flags (ss : list sample) : bool :=
  match ss with _ :: s1 :: _ => forallb (fun s => s_flags s =? s_flags s1) (tl ss) | _ => false end.
Definition all_cto0 (ss : list sample) : bool := forallb (fun s => Z.eqb (s_cto s) 0) ss.

(* nothing left for OptimizeTfhdTrun to do *)
Definition optimised (r : trun) : bool :=
  match tr_samples r with
  | [] => false
  | [_] => true
  | ss => negb (has_dur r && alleq_dur ss) && negb (has_size r && alleq_size ss)
          && negb (has_sflags r && alleq_flags ss)
          && negb (has_cto r && all_cto0 ss && ((N.of_nat (length ss) <=? MAX_BARE) || other_field r))
  end.

Lemma opt_dur_alt tf tr : opt_dur tf tr =
  match tr_samples tr with
  | [] => (tf, tr)
  | s0 :: _ => if has_dur tr && alleq_dur (tr_samples tr) then (tf_set_ddur tf (s_dur s0), tr_clear tr B_DUR) else (tf, tr)
  end.
Proof. unfold opt_dur, alleq_dur. destruct (tr_samples tr); reflexivity. Qed.

Lemma opt_size_alt tf tr : C05Model.opt_size tf tr =
  match tr_samples tr with
  | [] => (tf, tr)
  | s0 :: _ => if has_size tr && alleq_size (tr_samples tr) then (tf_set_dsize tf (s_size s0), tr_clear tr B_SIZE) else (tf, tr)
  end.
Proof. unfold C05Model.opt_size, alleq_size. destruct (tr_samples tr); reflexivity. Qed.

(* the four steps, as one record of facts about (tf', tr') = step tf tr *)
Record step_ok (bit : N) (tr tr' : trun) : Prop := {
  so_samples : tr_samples tr' = tr_samples tr;
  so_doff : tr_doff tr' = tr_doff tr;
  so_won : tr_won tr' = tr_won tr;
  so_version : tr_version tr' = tr_version tr;
  so_dur : bit <> B_DUR -> has_dur tr' = has_dur tr;
  so_size : bit <> B_SIZE -> has_size tr' = has_size tr;
  so_sflags : bit <> B_SFLAGS -> has_sflags tr' = has_sflags tr;
  so_cto : bit <> B_CTO -> has_cto tr' = has_cto tr;
  so_hdoff : has_doff tr' = has_doff tr }.

Lemma step_ok_refl bit tr : step_ok bit tr tr.
Proof. constructor; reflexivity. Qed.

Lemma opt_dur_step tf tr : step_ok B_DUR tr (snd (opt_dur tf tr)).
Proof.
  rewrite opt_dur_alt. destruct (tr_samples tr) eqn:E; [apply step_ok_refl|].
  destruct (has_dur tr && _); [|apply step_ok_refl]. cbn [snd].
  constructor; try reflexivity; intros; bits; try reflexivity; congruence.
Qed.

Lemma opt_size_step tf tr : step_ok B_SIZE tr (snd (C05Model.opt_size tf tr)).
Proof.
  rewrite opt_size_alt. destruct (tr_samples tr) eqn:E; [apply step_ok_refl|].
  destruct (has_size tr && _); [|apply step_ok_refl]. cbn [snd].
  constructor; try reflexivity; intros; bits; try reflexivity; congruence.
Qed.

Lemma opt_flags_step tf tr : step_ok B_SFLAGS tr (snd (opt_flags_gen true tf tr)).
Proof.
  unfold opt_flags_gen. destruct (tr_samples tr) as [|s0 [|s1 l]] eqn:E; try apply step_ok_refl.
  destruct (has_sflags tr && _); [|apply step_ok_refl].
  destruct (negb (s_flags s0 =? s_flags s1)); cbn [snd];
    (constructor; try reflexivity; intros; bits; try reflexivity; congruence).
Qed.

Lemma opt_cto_step tf tr : step_ok B_CTO tr (snd (opt_cto tf tr)).
Proof.
  unfold opt_cto. destruct (_ && _ && _); [|apply step_ok_refl]. cbn [snd].
  constructor; try reflexivity; intros; bits; try reflexivity; congruence.
Qed.

(* what each step establishes about its own bit *)
Lemma opt_dur_done tf tr : tr_samples tr <> [] ->
  has_dur (snd (opt_dur tf tr)) && alleq_dur (tr_samples tr) = false.
Proof.
  intros Hne. rewrite opt_dur_alt. destruct (tr_samples tr) eqn:E; [congruence|].
  destruct (has_dur tr && alleq_dur (s :: l)) eqn:C; cbn [snd]; [|exact C]. bits. reflexivity.
Qed.

Lemma opt_size_done tf tr : tr_samples tr <> [] ->
  has_size (snd (C05Model.opt_size tf tr)) && alleq_size (tr_samples tr) = false.
Proof.
  intros Hne. rewrite opt_size_alt. destruct (tr_samples tr) eqn:E; [congruence|].
  destruct (has_size tr && alleq_size (s :: l)) eqn:C; cbn [snd]; [|exact C]. bits. reflexivity.
Qed.

Lemma opt_flags_done tf tr :
  has_sflags (snd (opt_flags_gen true tf tr)) && alleq_flags (tr_samples tr) = false.
Proof.
  unfold opt_flags_gen, alleq_flags. destruct (tr_samples tr) as [|s0 [|s1 l]] eqn:E; try apply andb_false_r.
  destruct (has_sflags tr && forallb _ _) eqn:C; [|exact C].
  destruct (negb (s_flags s0 =? s_flags s1)); cbn [snd]; bits; reflexivity.
Qed.

(* the fourth block (repaired text, C05-F7): it leaves the field only when some offset is non-zero, or when the trun has
   more than MAX_BARE samples and no other per-sample field *)
Lemma opt_cto_done tf tr :
  has_cto (snd (opt_cto tf tr)) && all_cto0 (tr_samples tr)
  && ((N.of_nat (length (tr_samples tr)) <=? MAX_BARE) || other_field (snd (opt_cto tf tr))) = false.
Proof.
  unfold opt_cto, all_cto0. destruct (has_cto tr && forallb _ _ && _) eqn:C; cbn [snd]; [|exact C]. bits. reflexivity.
Qed.

(* (O1) the result of a successful optimisation is optimised *)
Lemma optimize_optimised tf tr tf' tr' : optimize tf tr = Ok (tf', tr') -> optimised tr' = true.
Proof.
  unfold optimize, FIXED_FSF, optimize_gen. destruct (tr_samples tr) as [|s0 [|s1 l]] eqn:E; [discriminate| |].
  - intros [= <- <-]. unfold optimised. rewrite E. reflexivity.
  - assert (Hne : tr_samples tr <> []) by (rewrite E; discriminate).
    pose proof (opt_dur_step tf tr) as S1. pose proof (opt_dur_done tf tr Hne) as D1.
    destruct (opt_dur tf tr) as [tf1 tr1]. cbn [snd] in *.
    assert (Hne1 : tr_samples tr1 <> []) by (rewrite (so_samples _ _ _ S1); exact Hne).
    pose proof (opt_size_step tf1 tr1) as S2. pose proof (opt_size_done tf1 tr1 Hne1) as D2.
    destruct (C05Model.opt_size tf1 tr1) as [tf2 tr2]. cbn [snd] in *.
    pose proof (opt_flags_step tf2 tr2) as S3. pose proof (opt_flags_done tf2 tr2) as D3.
    destruct (opt_flags_gen true tf2 tr2) as [tf3 tr3]. cbn [snd] in *.
    pose proof (opt_cto_step tf3 tr3) as S4. pose proof (opt_cto_done tf3 tr3) as D4.
    intros [= H]. rewrite H in S4, D4. cbn [snd] in *.
    assert (Es : tr_samples tr' = s0 :: s1 :: l).
    { rewrite (so_samples _ _ _ S4), (so_samples _ _ _ S3), (so_samples _ _ _ S2), (so_samples _ _ _ S1). exact E. }
    unfold optimised. rewrite Es.
    rewrite (so_dur _ _ _ S4), (so_dur _ _ _ S3), (so_dur _ _ _ S2) by (unfold B_DUR, B_SIZE, B_SFLAGS, B_CTO; discriminate).
    rewrite (so_size _ _ _ S4), (so_size _ _ _ S3) by (unfold B_DUR, B_SIZE, B_SFLAGS, B_CTO; discriminate).
    rewrite (so_sflags _ _ _ S4) by (unfold B_DUR, B_SIZE, B_SFLAGS, B_CTO; discriminate).
    rewrite (so_samples _ _ _ S3), (so_samples _ _ _ S2), (so_samples _ _ _ S1), E in D4.
    rewrite (so_samples _ _ _ S2), (so_samples _ _ _ S1), E in D3.
    rewrite (so_samples _ _ _ S1), E in D2. rewrite E in D1.
    rewrite D1, D2, D3, D4. reflexivity.
Qed.

(* (O2) an optimised trun is left alone, whatever the tfhd *)
Lemma optimised_fix tf tr : optimised tr = true -> optimize tf tr = Ok (tf, tr).
Proof.
  unfold optimised, optimize, FIXED_FSF, optimize_gen.
  destruct (tr_samples tr) as [|s0 [|s1 l]] eqn:E; [discriminate|reflexivity|].
  intros H. apply andb_true_iff in H. destruct H as [H H4]. apply andb_true_iff in H. destruct H as [H H3].
  apply andb_true_iff in H. destruct H as [H1 H2].
  apply negb_true_iff in H1, H2, H3, H4.
  rewrite opt_dur_alt, E, H1. rewrite opt_size_alt, E, H2.
  unfold opt_flags_gen. rewrite E. unfold alleq_flags in H3. rewrite H3.
  unfold opt_cto. unfold all_cto0 in H4. rewrite E, H4. reflexivity.
Qed.

(* (O3) the data offset plays no role *)
Lemma optimised_doff r d : optimised (tr_with_doff r d) = optimised r.
Proof. reflexivity. Qed.

(* the four blocks run one after the other: what every block keeps, the whole keeps *)
Lemma optimize_chain (R : tfhd * trun -> tfhd * trun -> Prop) :
  (forall p, R p p) -> (forall p q r, R p q -> R q r -> R p r) ->
  (forall tf tr, R (tf, tr) (opt_dur tf tr)) -> (forall tf tr, R (tf, tr) (C05Model.opt_size tf tr)) ->
  (forall tf tr, R (tf, tr) (opt_flags_gen true tf tr)) -> (forall tf tr, R (tf, tr) (opt_cto tf tr)) ->
  forall tf tr tf' tr', optimize tf tr = Ok (tf', tr') -> R (tf, tr) (tf', tr').
Proof.
  intros Hrefl Htrans H1 H2 H3 H4 tf tr tf' tr'. unfold optimize, FIXED_FSF, optimize_gen.
  destruct (tr_samples tr) as [|s0 [|s1 l]]; [discriminate|intros [= <- <-]; apply Hrefl|].
  specialize (H1 tf tr). destruct (opt_dur tf tr) as [tf1 tr1].
  specialize (H2 tf1 tr1). destruct (C05Model.opt_size tf1 tr1) as [tf2 tr2].
  specialize (H3 tf2 tr2). destruct (opt_flags_gen true tf2 tr2) as [tf3 tr3].
  intros [= H]. specialize (H4 tf3 tr3). rewrite H in H4. eauto.
Qed.

(* the trun that comes out differs in flags and first-sample-flags only *)
Lemma optimize_keeps tf tr tf' tr' : optimize tf tr = Ok (tf', tr') ->
  tr_samples tr' = tr_samples tr /\ tr_doff tr' = tr_doff tr /\ tr_won tr' = tr_won tr /\ has_doff tr' = has_doff tr.
Proof.
  assert (S : forall bit r r', step_ok bit r r' ->
            tr_samples r' = tr_samples r /\ tr_doff r' = tr_doff r /\ tr_won r' = tr_won r /\ has_doff r' = has_doff r).
  { intros bit r r' []. repeat split; assumption. }
  apply (optimize_chain (fun p q => tr_samples (snd q) = tr_samples (snd p) /\ tr_doff (snd q) = tr_doff (snd p) /\
                                    tr_won (snd q) = tr_won (snd p) /\ has_doff (snd q) = has_doff (snd p))).
  - repeat split.
  - intros p q r (A1 & A2 & A3 & A4) (B1 & B2 & B3 & B4). repeat split; congruence.
  - intros. eapply S, opt_dur_step.
  - intros. eapply S, opt_size_step.
  - intros. eapply S, opt_flags_step.
  - intros. eapply S, opt_cto_step.
Qed.

(* two trafs / moofs with the same children in the same order, up to Rh on tfhd and Rr on trun children; the
   relations used below (data offsets only: tc_dv, mc_dv) and in C02AggPureProofs (tc_fr, mc_fr) are instances *)
Definition tc_rel (Rh : tfhd -> tfhd -> Prop) (Rr : trun -> trun -> Prop) (c c' : tchild) : Prop :=
  match c, c' with TcTfhd h, TcTfhd h' => Rh h h' | TcTrun r, TcTrun r' => Rr r r' | _, _ => c' = c end.
Definition mc_rel (Rt : atraf -> atraf -> Prop) (c c' : mchild) : Prop :=
  match c, c' with McTraf t, McTraf t' => Rt t t' | _, _ => c' = c end.

Section ChildRel.
  Variable Rh : tfhd -> tfhd -> Prop.
  Variable Rr : trun -> trun -> Prop.
  Variable Rt : atraf -> atraf -> Prop.

  Lemma tc_rel_refl : (forall h, Rh h h) -> (forall r, Rr r r) -> forall c, tc_rel Rh Rr c c.
  Proof. intros Hh Hr c. destruct c; cbn [tc_rel]; auto. Qed.

  Lemma tc_rel_trans : (forall a b c, Rh a b -> Rh b c -> Rh a c) -> (forall a b c, Rr a b -> Rr b c -> Rr a c) ->
    forall a b c, tc_rel Rh Rr a b -> tc_rel Rh Rr b c -> tc_rel Rh Rr a c.
  Proof.
    intros Th Tr a b c. destruct a, b; cbn [tc_rel]; intros H1; try discriminate H1; try (injection H1 as H1; subst);
      destruct c; cbn [tc_rel]; intros H2; try discriminate H2; try (injection H2 as H2; subst); eauto.
  Qed.

  (* well-formedness only looks at the opaque children *)
  Lemma tc_rel_wf c c' : tc_rel Rh Rr c c' -> tc_wf c' = tc_wf c.
  Proof. destruct c, c'; cbn [tc_rel]; intros H; try discriminate H; try (injection H as H; subst); reflexivity. Qed.

  Lemma traf_rel_wf t t' : Forall2 (tc_rel Rh Rr) t t' -> atraf_wf t' = atraf_wf t.
  Proof. apply Forall2_forallb_eq, tc_rel_wf. Qed.

  Lemma mc_rel_refl : (forall t, Rt t t) -> forall c, mc_rel Rt c c.
  Proof. intros Ht c. destruct c; cbn [mc_rel]; auto. Qed.

  Lemma mc_rel_trans : (forall a b c, Rt a b -> Rt b c -> Rt a c) ->
    forall a b c, mc_rel Rt a b -> mc_rel Rt b c -> mc_rel Rt a c.
  Proof.
    intros Tt a b c. destruct a, b; cbn [mc_rel]; intros H1; try discriminate H1; try (injection H1 as H1; subst);
      destruct c; cbn [mc_rel]; intros H2; try discriminate H2; try (injection H2 as H2; subst); eauto.
  Qed.

  Lemma moof_rel_wf : (forall t t', Rt t t' -> atraf_wf t' = atraf_wf t) ->
    forall m m', Forall2 (mc_rel Rt) m m' -> amoof_wf m' = amoof_wf m.
  Proof.
    intros Ht. apply Forall2_forallb_eq. intros c c'.
    destruct c, c'; cbn [mc_rel mc_wf]; intros H; try discriminate H; try (injection H as H; subst); auto.
  Qed.
End ChildRel.

Lemma truns_upd_last_tfhd h t : atraf_truns (upd_last_tfhd h t) = atraf_truns t.
Proof.
  induction t as [|c rest IH]; [reflexivity|]. destruct c as [h0|d|r|o]; cbn [upd_last_tfhd].
  1:{ destruct (last_tfhd rest); [exact IH|reflexivity]. }
  all: unfold atraf_truns in *; cbn [flat_map]; rewrite IH; reflexivity.
Qed.

Lemma truns_upd_first_trun r' t r rs : atraf_truns t = r :: rs -> atraf_truns (upd_first_trun r' t) = r' :: rs.
Proof.
  induction t as [|c rest IH]; [discriminate|]. destruct c as [h0|d|r0|o]; cbn [upd_first_trun atraf_truns flat_map tc_truns app];
    intros H; try (apply IH; exact H).
  injection H as _ <-. reflexivity.
Qed.

Lemma last_tfhd_upd_first_trun r' t : last_tfhd (upd_first_trun r' t) = last_tfhd t.
Proof.
  induction t as [|c rest IH]; [reflexivity|]. destruct c as [h0|d|r0|o]; cbn [upd_first_trun last_tfhd]; try rewrite IH; reflexivity.
Qed.

Lemma upd_first_trun_same t r rs : atraf_truns t = r :: rs -> upd_first_trun r t = t.
Proof.
  induction t as [|c rest IH]; [discriminate|]. destruct c as [h0|d|r0|o]; cbn [upd_first_trun atraf_truns flat_map tc_truns app];
    intros H; try (f_equal; apply IH; exact H).
  injection H as -> _. reflexivity.
Qed.

Lemma upd_last_tfhd_same t h : last_tfhd t = Some h -> upd_last_tfhd h t = t.
Proof.
  induction t as [|c rest IH]; [discriminate|]. destruct c as [h0|d|r0|o]; cbn [upd_last_tfhd last_tfhd];
    intros H; try (f_equal; apply IH; exact H).
  destruct (last_tfhd rest) as [x|] eqn:E.
  - f_equal. apply IH. exact H.
  - injection H as ->. reflexivity.
Qed.

(* replacing the first trun / the last tfhd by a related one gives a related traf *)
Section Upd.
  Variable Rh : tfhd -> tfhd -> Prop.
  Variable Rr : trun -> trun -> Prop.
  Hypothesis Rh_refl : forall h, Rh h h.
  Hypothesis Rr_refl : forall r, Rr r r.

  Lemma upd_first_trun_rel r' t : forall r rs, atraf_truns t = r :: rs -> Rr r r' ->
    Forall2 (tc_rel Rh Rr) t (upd_first_trun r' t).
  Proof.
    induction t as [|c rest IH]; intros r rs E F; [discriminate|].
    destruct c as [h|d|r0|o]; unfold atraf_truns in E; cbn [flat_map tc_truns app] in E; cbn [upd_first_trun].
    3:{ injection E as -> _. constructor; [exact F|apply Forall2_refl, tc_rel_refl; assumption]. }
    all: constructor; [apply tc_rel_refl; assumption|eapply IH; eassumption].
  Qed.

  Lemma upd_last_tfhd_rel h' t : forall h, last_tfhd t = Some h -> Rh h h' ->
    Forall2 (tc_rel Rh Rr) t (upd_last_tfhd h' t).
  Proof.
    induction t as [|c rest IH]; intros h E F; [discriminate|].
    destruct c as [h0|d|r0|o]; cbn [last_tfhd] in E; cbn [upd_last_tfhd].
    1:{ destruct (last_tfhd rest) as [x|] eqn:L.
        - constructor; [apply Rh_refl|eapply IH; eassumption].
        - injection E as ->. constructor; [exact F|apply Forall2_refl, tc_rel_refl; assumption]. }
    all: constructor; [apply tc_rel_refl; assumption|eapply IH; eassumption].
  Qed.

  Hypothesis Rh_trans : forall a b c, Rh a b -> Rh b c -> Rh a c.
  Hypothesis Rr_trans : forall a b c, Rr a b -> Rr b c -> Rr a c.
  Hypothesis optimize_rel : forall h r h' r', optimize h r = Ok (h', r') -> Rh h h' /\ Rr r r'.

  Lemma optimize_traf_rel t t' : optimize_traf t = Ok t' -> Forall2 (tc_rel Rh Rr) t t'.
  Proof.
    unfold optimize_traf. destruct (atraf_truns t) as [|r rs] eqn:E; [intros [= <-]; apply Forall2_refl, tc_rel_refl; assumption|].
    destruct (last_tfhd t) as [h|] eqn:L.
    - destruct (optimize h r) as [[h' r']| | |] eqn:O; try discriminate. cbn [rbind fst snd]. intros [= <-].
      destruct (optimize_rel h r h' r' O) as [Fh Fr].
      eapply Forall2_trans; [apply tc_rel_trans; assumption|eapply upd_first_trun_rel; eassumption|].
      eapply upd_last_tfhd_rel; [rewrite last_tfhd_upd_first_trun; exact L|exact Fh].
    - destruct (optimize NIL_TFHD r) as [[h' r']| | |] eqn:O; try discriminate. cbn [rbind fst snd].
      destruct (tf_flags h' =? 0); [|discriminate]. intros [= <-].
      destruct (optimize_rel _ r h' r' O) as [_ Fr]. eapply upd_first_trun_rel; eassumption.
  Qed.
End Upd.

Definition traf_optimised (t : atraf) : bool :=
  match atraf_truns t with [] => true | r :: _ => optimised r end.

(* (T1) *)
Lemma optimize_traf_optimised t t' : optimize_traf t = Ok t' -> traf_optimised t' = true.
Proof.
  unfold optimize_traf, traf_optimised. destruct (atraf_truns t) as [|r rs] eqn:E.
  - intros [= <-]. rewrite E. reflexivity.
  - destruct (last_tfhd t) as [h|].
    + destruct (optimize h r) as [[h' r']| | |] eqn:O; try discriminate. cbn [rbind fst snd]. intros [= <-].
      rewrite truns_upd_last_tfhd, (truns_upd_first_trun r' t r rs E). eapply optimize_optimised. exact O.
    + destruct (optimize NIL_TFHD r) as [[h' r']| | |] eqn:O; try discriminate. cbn [rbind fst snd].
      destruct (tf_flags h' =? 0); [|discriminate]. intros [= <-].
      rewrite (truns_upd_first_trun r' t r rs E). eapply optimize_optimised. exact O.
Qed.

(* (T2) *)
Lemma traf_optimised_fix t : traf_optimised t = true -> optimize_traf t = Ok t.
Proof.
  unfold optimize_traf, traf_optimised. destruct (atraf_truns t) as [|r rs] eqn:E; [reflexivity|]. intros H.
  destruct (last_tfhd t) as [h|] eqn:L.
  - rewrite (optimised_fix h r H). cbn [rbind fst snd].
    rewrite (upd_first_trun_same t r rs E), (upd_last_tfhd_same t h L). reflexivity.
  - rewrite (optimised_fix NIL_TFHD r H). cbn [rbind fst snd NIL_TFHD tf_flags N.eqb].
    rewrite (upd_first_trun_same t r rs E). reflexivity.
Qed.

Lemma optimize_traf_wf t t' : optimize_traf t = Ok t' -> atraf_wf t' = atraf_wf t.
Proof.
  intros H. apply (traf_rel_wf (fun _ _ => True) (fun _ _ => True)). apply optimize_traf_rel; auto.
Qed.

Fixpoint moof_optimised (m : amoof) : bool :=
  match m with
  | [] => true
  | McTraf t :: _ => traf_optimised t
  | _ :: rest => moof_optimised rest
  end.

Lemma optimize_moof_optimised m : forall m', optimize_moof m = Ok m' -> moof_optimised m' = true.
Proof.
  induction m as [|c rest IH]; intros m' H; [injection H as <-; reflexivity|].
  destruct c as [s|t|o]; cbn [optimize_moof] in H.
  2:{ destruct (optimize_traf t) as [t'| | |] eqn:O; try discriminate. injection H as <-. exact (optimize_traf_optimised t t' O). }
  all: destruct (optimize_moof rest) as [r| | |]; try discriminate; injection H as <-; exact (IH r eq_refl).
Qed.

Lemma moof_optimised_fix m : moof_optimised m = true -> optimize_moof m = Ok m.
Proof.
  induction m as [|c rest IH]; [reflexivity|]. destruct c as [s|t|o]; cbn [moof_optimised optimize_moof]; intros H.
  2:{ rewrite (traf_optimised_fix t H). reflexivity. }
  all: rewrite (IH H); reflexivity.
Qed.

(* the first traf child is replaced by its optimised form *)
Lemma optimize_moof_rel (Rt : atraf -> atraf -> Prop) : (forall t, Rt t t) ->
  (forall t t', optimize_traf t = Ok t' -> Rt t t') ->
  forall m m', optimize_moof m = Ok m' -> Forall2 (mc_rel Rt) m m'.
Proof.
  intros Hrefl Ht. induction m as [|c rest IH]; intros m' H; [injection H as <-; constructor|].
  destruct c as [s|t|o]; cbn [optimize_moof] in H.
  2:{ destruct (optimize_traf t) as [t'| | |] eqn:O; try discriminate. injection H as <-.
      constructor; [exact (Ht t t' O)|apply Forall2_refl, mc_rel_refl, Hrefl]. }
  all: destruct (optimize_moof rest) as [r| | |]; try discriminate; injection H as <-;
    constructor; [reflexivity|exact (IH r eq_refl)].
Qed.

Lemma optimize_moof_wf m : forall m', optimize_moof m = Ok m' -> amoof_wf m' = amoof_wf m.
Proof.
  intros m' H. apply (moof_rel_wf (fun t t' => atraf_wf t' = atraf_wf t)); [auto|].
  apply optimize_moof_rel; [reflexivity|exact optimize_traf_wf|exact H].
Qed.

Definition dv (r r' : trun) : Prop := r' = tr_with_doff r (tr_doff r').

Lemma dv_refl r : dv r r.
Proof. unfold dv. destruct r; reflexivity. Qed.

Lemma dv_with r d : dv r (tr_with_doff r d).
Proof. reflexivity. Qed.

Lemma dv_size r r' : dv r r' -> trun_size r' = trun_size r.
Proof. intros ->. reflexivity. Qed.
Lemma dv_won r r' : dv r r' -> tr_won r' = tr_won r.
Proof. intros ->. reflexivity. Qed.
Lemma dv_sod r r' : dv r r' -> size_of_data r' = size_of_data r.
Proof. intros ->. reflexivity. Qed.
Lemma dv_optimised r r' : dv r r' -> optimised r' = optimised r.
Proof. intros ->. reflexivity. Qed.

Definition tc_dv (c c' : tchild) : Prop :=
  match c, c' with TcTrun r, TcTrun r' => dv r r' | _, _ => c' = c end.
Definition traf_dv (t t' : atraf) : Prop := Forall2 tc_dv t t'.
Definition mc_dv (c c' : mchild) : Prop :=
  match c, c' with McTraf t, McTraf t' => traf_dv t t' | _, _ => c' = c end.
Definition moof_dv (m m' : amoof) : Prop := Forall2 mc_dv m m'.

Lemma tc_dv_inv c c' : tc_dv c c' -> c' = c \/ exists r r', c = TcTrun r /\ c' = TcTrun r' /\ dv r r'.
Proof. destruct c, c'; cbn [tc_dv]; intros H; try (left; exact H). right. eauto. Qed.

Lemma mc_dv_inv c c' : mc_dv c c' -> c' = c \/ exists t t', c = McTraf t /\ c' = McTraf t' /\ traf_dv t t'.
Proof. destruct c, c'; cbn [mc_dv]; intros H; try (left; exact H). right. eauto. Qed.

Lemma traf_dv_refl t : traf_dv t t.
Proof. apply Forall2_refl. intros c. destruct c; cbn [tc_dv]; try reflexivity. apply dv_refl. Qed.
Lemma moof_dv_refl m : moof_dv m m.
Proof. apply Forall2_refl. intros c. destruct c; cbn [mc_dv]; try reflexivity. apply traf_dv_refl. Qed.

(* child by child: size, well-formedness and the truns up to their data offsets *)
Lemma tc_dv_facts c c' : tc_dv c c' ->
  tc_size c' = tc_size c /\ tc_wf c' = tc_wf c /\ Forall2 dv (tc_truns c) (tc_truns c').
Proof.
  intros H. destruct (tc_dv_inv c c' H) as [->|(r & r' & -> & -> & D)].
  - repeat split. apply Forall2_refl, dv_refl.
  - repeat split; [exact (dv_size r r' D)|constructor; [exact D|constructor]].
Qed.

Lemma traf_dv_sizes t t' : traf_dv t t' -> map tc_size t' = map tc_size t.
Proof. apply Forall2_map_eq. intros c c' H. apply (tc_dv_facts c c' H). Qed.

Lemma traf_dv_size t t' : traf_dv t t' -> atraf_size t' = atraf_size t.
Proof. intros H. unfold atraf_size. rewrite (traf_dv_sizes t t' H). reflexivity. Qed.

Lemma traf_dv_wf t t' : traf_dv t t' -> atraf_wf t' = atraf_wf t.
Proof. apply Forall2_forallb_eq. intros c c' H. apply (tc_dv_facts c c' H). Qed.

Lemma traf_dv_truns t t' : traf_dv t t' -> Forall2 dv (atraf_truns t) (atraf_truns t').
Proof. apply Forall2_flat_map. intros c c' H. apply (tc_dv_facts c c' H). Qed.

Lemma traf_dv_last_tfhd t t' : traf_dv t t' -> last_tfhd t' = last_tfhd t.
Proof.
  induction 1 as [|c c' r r' H _ IH]; [reflexivity|].
  destruct (tc_dv_inv c c' H) as [->|(x & x' & -> & -> & _)]; [destruct c|]; cbn [last_tfhd]; rewrite IH; reflexivity.
Qed.

Lemma traf_dv_optimised t t' : traf_dv t t' -> traf_optimised t' = traf_optimised t.
Proof.
  intros H. apply traf_dv_truns in H. unfold traf_optimised. destruct H as [|r r' ? ? D _]; [reflexivity|].
  apply dv_optimised. exact D.
Qed.

Lemma mc_dv_facts c c' : mc_dv c c' ->
  mc_size c' = mc_size c /\ mc_wf c' = mc_wf c /\ Forall2 dv (mc_truns c) (mc_truns c').
Proof.
  intros H. destruct (mc_dv_inv c c' H) as [->|(t & t' & -> & -> & D)].
  - repeat split. apply Forall2_refl, dv_refl.
  - repeat split; [exact (traf_dv_size t t' D)|exact (traf_dv_wf t t' D)|exact (traf_dv_truns t t' D)].
Qed.

Lemma moof_dv_sizes m m' : moof_dv m m' -> map mc_size m' = map mc_size m.
Proof. apply Forall2_map_eq. intros c c' H. apply (mc_dv_facts c c' H). Qed.

Lemma moof_dv_size m m' : moof_dv m m' -> amoof_size m' = amoof_size m.
Proof. intros H. unfold amoof_size. rewrite (moof_dv_sizes m m' H). reflexivity. Qed.

Lemma moof_dv_wf m m' : moof_dv m m' -> amoof_wf m' = amoof_wf m.
Proof. apply Forall2_forallb_eq. intros c c' H. apply (mc_dv_facts c c' H). Qed.

Lemma moof_dv_truns m m' : moof_dv m m' -> Forall2 dv (amoof_truns m) (amoof_truns m').
Proof. apply Forall2_flat_map. intros c c' H. apply (mc_dv_facts c c' H). Qed.

Lemma moof_dv_optimised m m' : moof_dv m m' -> moof_optimised m' = moof_optimised m.
Proof.
  induction 1 as [|c c' r r' H _ IH]; [reflexivity|].
  destruct (mc_dv_inv c c' H) as [->|(t & t' & -> & -> & D)]; [destruct c|]; cbn [moof_optimised]; try exact IH; try reflexivity.
  apply traf_dv_optimised. exact D.
Qed.

Lemma put_traf t : forall rs1 rest, Forall2 dv (atraf_truns t) rs1 ->
  snd (put_truns_traf t (rs1 ++ rest)) = rest /\ traf_dv t (fst (put_truns_traf t (rs1 ++ rest))) /\
  atraf_truns (fst (put_truns_traf t (rs1 ++ rest))) = rs1.
Proof.
  induction t as [|c tl IH]; intros rs1 rest H.
  - inversion H; subst. cbn [put_truns_traf fst snd app]. repeat split. constructor.
  - destruct c as [h|d|r|o]; unfold atraf_truns in H; cbn [flat_map tc_truns app] in H; cbn [put_truns_traf].
    3:{ inversion H as [|? r' ? rs1' D F]; subst. cbn [app].
        destruct (IH rs1' rest F) as (A & B & C). destruct (put_truns_traf tl (rs1' ++ rest)) as [t' k]. cbn [fst snd] in *.
        repeat split; [exact A|constructor; [exact D|exact B]|].
        unfold atraf_truns. cbn [flat_map tc_truns app]. f_equal. exact C. }
    all: destruct (IH rs1 rest H) as (A & B & C); destruct (put_truns_traf tl (rs1 ++ rest)) as [t' k]; cbn [fst snd] in *;
      repeat split; [exact A|constructor; [reflexivity|exact B]|exact C].
Qed.

Lemma put_moof m : forall rs1 rest, Forall2 dv (amoof_truns m) rs1 ->
  snd (put_truns_moof m (rs1 ++ rest)) = rest /\ moof_dv m (fst (put_truns_moof m (rs1 ++ rest))) /\
  amoof_truns (fst (put_truns_moof m (rs1 ++ rest))) = rs1.
Proof.
  induction m as [|c tl IH]; intros rs1 rest H.
  - inversion H; subst. cbn [put_truns_moof fst snd app]. repeat split. constructor.
  - destruct c as [s|t|o]; unfold amoof_truns in H; cbn [flat_map mc_truns app] in H; cbn [put_truns_moof].
    2:{ destruct (Forall2_app_inv_l _ _ H) as (a & b & Ha & Hb & ->). rewrite <- app_assoc.
        destruct (put_traf t a (b ++ rest) Ha) as (A1 & B1 & C1).
        destruct (put_truns_traf t (a ++ b ++ rest)) as [t' k]. cbn [fst snd] in *. subst k.
        destruct (IH b rest Hb) as (A & B & C). destruct (put_truns_moof tl (b ++ rest)) as [m' k']. cbn [fst snd] in *.
        repeat split; [exact A|constructor; [exact B1|exact B]|].
        unfold amoof_truns. cbn [flat_map mc_truns]. fold (amoof_truns m'). rewrite C1, C. reflexivity. }
    all: destruct (IH rs1 rest H) as (A & B & C); destruct (put_truns_moof tl (rs1 ++ rest)) as [m' k]; cbn [fst snd] in *;
      repeat split; [exact A|constructor; [reflexivity|exact B]|exact C].
Qed.

Lemma put_traf_self t rest : put_truns_traf t (atraf_truns t ++ rest) = (t, rest).
Proof.
  induction t as [|c tl IH]; [reflexivity|]. destruct c as [h|d|r|o]; unfold atraf_truns; cbn [flat_map tc_truns app put_truns_traf];
    fold (atraf_truns tl); rewrite IH; reflexivity.
Qed.

Lemma put_moof_self m rest : put_truns_moof m (amoof_truns m ++ rest) = (m, rest).
Proof.
  induction m as [|c tl IH]; [reflexivity|]. destruct c as [s|t|o]; unfold amoof_truns; cbn [flat_map mc_truns app put_truns_moof];
    fold (amoof_truns tl).
  - rewrite IH. reflexivity.
  - rewrite <- app_assoc, put_traf_self, IH. reflexivity.
  - rewrite IH. reflexivity.
Qed.

Definition tagged_rel (x y : N * trun) : Prop := fst y = fst x /\ dv (snd x) (snd y).

Lemma tag_from_rel l l' : Forall2 dv l l' -> forall k, Forall2 tagged_rel (tag_from k l) (tag_from k l').
Proof.
  induction 1 as [|r r' t t' D _ IH]; intros k; cbn [tag_from]; constructor; [split; [reflexivity|exact D]|apply IH].
Qed.

Lemma insert_ix_rel x y l l' : tagged_rel x y -> Forall2 tagged_rel l l' ->
  Forall2 tagged_rel (insert_ix x l) (insert_ix y l').
Proof.
  intros Hxy H. induction H as [|a b t t' Hab Ht IH]; cbn [insert_ix]; [constructor; [exact Hxy|constructor]|].
  destruct Hxy as [Fxy Dxy]. destruct Hab as [Fab Dab]. rewrite (dv_won _ _ Dxy), (dv_won _ _ Dab).
  destruct (tr_won (snd x) <=? tr_won (snd a)).
  - constructor; [split; assumption|constructor; [split; assumption|assumption]].
  - constructor; [split; assumption|apply IH].
Qed.

Lemma sort_ix_rel l l' : Forall2 tagged_rel l l' -> Forall2 tagged_rel (sort_ix l) (sort_ix l').
Proof.
  induction 1 as [|a b t t' Hab _ IH]; [constructor|]. unfold sort_ix. cbn [fold_right].
  apply insert_ix_rel; [exact Hab|exact IH].
Qed.

Lemma assign_ix_rel l l' : Forall2 tagged_rel l l' -> forall off, assign_ix l' off = assign_ix l off.
Proof.
  induction 1 as [|a b t t' [F D] _ IH]; intros off; [reflexivity|]. cbn [assign_ix].
  rewrite F, (dv_sod _ _ D), IH. reflexivity.
Qed.

Lemma lookup_off_idem tbl w d : lookup_off tbl w (lookup_off tbl w d) = lookup_off tbl w d.
Proof.
  induction tbl as [|[k o] t IH]; [reflexivity|]. cbn [lookup_off]. destruct (k =? w); [reflexivity|exact IH].
Qed.

Lemma new_truns_dv_gen tbl l : forall k,
  Forall2 dv l (map (fun x => tr_with_doff (snd x) (lookup_off tbl (fst x) (tr_doff (snd x)))) (tag_from k l)).
Proof. induction l as [|r t IH]; intros k; cbn [tag_from map]; constructor; [apply dv_with|apply IH]. Qed.

Lemma new_truns_dv l base : Forall2 dv l (new_truns l base).
Proof. apply new_truns_dv_gen. Qed.

Lemma new_truns_idem_gen tbl l : forall k,
  map (fun x => tr_with_doff (snd x) (lookup_off tbl (fst x) (tr_doff (snd x))))
      (tag_from k (map (fun x => tr_with_doff (snd x) (lookup_off tbl (fst x) (tr_doff (snd x)))) (tag_from k l)))
  = map (fun x => tr_with_doff (snd x) (lookup_off tbl (fst x) (tr_doff (snd x)))) (tag_from k l).
Proof.
  induction l as [|r t IH]; intros k; [reflexivity|]. cbn [tag_from map fst snd]. f_equal; [|apply IH].
  unfold tr_with_doff. cbn [tr_version tr_flags tr_fsf tr_samples tr_won tr_doff]. rewrite lookup_off_idem. reflexivity.
Qed.

Lemma new_truns_idem l base : new_truns (new_truns l base) base = new_truns l base.
Proof.
  unfold new_truns at 1.
  pose proof (new_truns_dv l base) as D.
  rewrite (assign_ix_rel _ _ (sort_ix_rel _ _ (tag_from_rel _ _ D 0)) base).
  unfold new_truns. apply new_truns_idem_gen.
Qed.

Lemma existsb_won_dv l l' : Forall2 dv l l' ->
  existsb (fun r => negb (tr_won r =? 0)) l' = existsb (fun r => negb (tr_won r =? 0)) l.
Proof. induction 1 as [|r r' t t' D _ IH]; [reflexivity|]. cbn [existsb]. rewrite (dv_won _ _ D), IH. reflexivity. Qed.

Lemma aset_offsets_dv m md m' md' : aset_offsets m md = (m', md') ->
  moof_dv m m' /\ (md' = md \/ md' = md_size_touch md).
Proof.
  unfold aset_offsets. destruct (negb _ && _).
  - intros [= <- <-]. split; [apply moof_dv_refl|left; reflexivity].
  - intros [= <- <-]. split; [|right; reflexivity].
    pose proof (new_truns_dv (amoof_truns m) (amoof_size m + md_header_size (md_size_touch md))) as D.
    destruct (put_moof m _ [] D) as (_ & B & _). rewrite app_nil_r in B. exact B.
Qed.

Lemma aset_offsets_idem m md m' md' : aset_offsets m md = (m', md') -> aset_offsets m' md' = (m', md').
Proof.
  unfold aset_offsets.
  destruct (negb (existsb (fun r => negb (tr_won r =? 0)) (amoof_truns m)) && (1 <? lenN (amoof_truns m))) eqn:C.
  - intros [= <- <-]. rewrite C. reflexivity.
  - intros [= <- <-].
    set (base := amoof_size m + md_header_size (md_size_touch md)).
    pose proof (new_truns_dv (amoof_truns m) base) as D.
    destruct (put_moof m _ [] D) as (_ & B & T). rewrite app_nil_r in B, T.
    set (m' := fst (put_truns_moof m (new_truns (amoof_truns m) base))) in *.
    rewrite T. rewrite (existsb_won_dv _ _ D).
    assert (L : lenN (new_truns (amoof_truns m) base) = lenN (amoof_truns m)).
    { unfold lenN. rewrite (Forall2_length_eq _ _ _ D). reflexivity. }
    rewrite L, C. rewrite md_touch_idem. rewrite (moof_dv_size m m' B). fold base.
    rewrite new_truns_idem. rewrite <- T at 1. rewrite <- (app_nil_r (amoof_truns m')).
    rewrite put_moof_self. reflexivity.
Qed.

(* after Size() on the mdat: the same offsets *)
Lemma aset_offsets_touch m md :
  aset_offsets m (md_size_touch md) = (fst (aset_offsets m md), md_size_touch (snd (aset_offsets m md))).
Proof. unfold aset_offsets. destruct (negb _ && _); cbn [fst snd]; rewrite ?md_touch_idem; reflexivity. Qed.

Lemma optimize_idem tf tr tf' tr' : optimize tf tr = Ok (tf', tr') -> optimize tf' tr' = Ok (tf', tr').
Proof. intros H. apply optimised_fix. eapply optimize_optimised. exact H. Qed.

Lemma optimize_traf_idem t t' : optimize_traf t = Ok t' -> optimize_traf t' = Ok t'.
Proof. intros H. apply traf_optimised_fix. eapply optimize_traf_optimised. exact H. Qed.

Lemma optimize_moof_idem m m' : optimize_moof m = Ok m' -> optimize_moof m' = Ok m'.
Proof. intros H. apply moof_optimised_fix. eapply optimize_moof_optimised. exact H. Qed.

Lemma of_c05_traf_size t : tf_extra t = 0 -> td_version (tf_dt t) <= 1 -> atraf_size (of_c05_traf t) = traf_size t.
Proof.
  intros He Hv. unfold atraf_size, of_c05_traf, traf_size. cbn [map sumN tc_size].
  assert (M : map tc_size (map TcTrun (tf_truns t)) = map trun_size (tf_truns t)) by (rewrite map_map; reflexivity).
  rewrite M, He. unfold atfdt_size, tfdt_size.
  assert (Hc : td_version (tf_dt t) = 0 \/ td_version (tf_dt t) = 1) by lia.
  destruct Hc as [-> | ->]; cbn [N.eqb Pos.eqb]; lia.
Qed.

Lemma of_c05_moof_size seq fr :
  fr_moofx fr = 0 -> Forall (fun t => tf_extra t = 0 /\ td_version (tf_dt t) <= 1) (fr_trafs fr) ->
  amoof_size (of_c05_moof seq fr) = moof_size fr.
Proof.
  intros Hx Ht. unfold amoof_size, of_c05_moof, moof_size. cbn [map sumN mc_size]. rewrite Hx.
  assert (E : map mc_size (map (fun t => McTraf (of_c05_traf t)) (fr_trafs fr)) = map traf_size (fr_trafs fr)).
  { induction Ht as [|t l [H1 H2] _ IH]; [reflexivity|]. cbn [map mc_size]. rewrite IH, of_c05_traf_size by assumption. reflexivity. }
  rewrite E. lia.
Qed.

Lemma of_c05_truns seq fr : amoof_truns (of_c05_moof seq fr) = all_truns (fr_trafs fr).
Proof.
  unfold amoof_truns, of_c05_moof, all_truns. cbn [flat_map mc_truns app].
  induction (fr_trafs fr) as [|t l IH]; [reflexivity|]. cbn [map flat_map mc_truns]. rewrite IH. f_equal.
  unfold of_c05_traf, atraf_truns. cbn [flat_map tc_truns app]. induction (tf_truns t) as [|r rs IHr]; [reflexivity|].
  cbn [map flat_map tc_truns app]. rewrite IHr. reflexivity.
Qed.
