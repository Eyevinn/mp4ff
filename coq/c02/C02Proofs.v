(* C02Proofs.v — Size() = bytes written = header size field, for every leaf kind of the C01 model and at
   every node of a tree.  The statements are about raw_box false (what the Go encoders write) and are
   conditional on the exact guards under which the separately written Size() and EncodeSW agree. *)
From V.lib Require Import Base.
From Coq Require Import Permutation.
From V.c01 Require Import C01Codec C01Model C01LeafProofs C01TreeProofs.
From V.c01 Require Export C01SizeProofs.   (* leaf_size_guard, leaf_size: the leaf part, shared with C01's fixed point *)

Local Opaque zeros unity_matrix.

Lemma skipn_app_len {A} (x y : list A) n : length x = n -> skipn n (x ++ y) = y.
Proof. intros <-. induction x as [|a x IH]; [reflexivity|]. cbn [length skipn app]. exact IH. Qed.

Lemma hdr_field_compact name sz rest :
  8 <= sz < 4294967296 -> hdr_size_field (enc_hdr name sz ++ rest) = sz.
Proof.
  intros [Hlo Hhi]. unfold hdr_size_field, enc_hdr. rewrite <- app_assoc.
  rewrite rd_enc by (change (256 ^ N.of_nat 4) with 4294967296; lia).
  destruct sz as [|p]; [lia|]. destruct p; try reflexivity. lia.
Qed.

Lemma hdr_field_large name sz rest :
  lenN name = 4 -> sz < 18446744073709551616 -> hdr_size_field (enc_hdr_large name sz ++ rest) = sz.
Proof.
  intros Hn Hhi. unfold hdr_size_field, enc_hdr_large. repeat rewrite <- app_assoc.
  rewrite rd_enc by (cbn; lia).
  rewrite skipn_app_len by (unfold lenN in Hn; lia).
  now rewrite rd_enc by (change (256 ^ N.of_nat 8) with 18446744073709551616; lia).
Qed.

Section MboxInd.
  Variable P : mbox -> Prop.
  Hypothesis HL : forall h l r, P (MLeaf h l r).
  Hypothesis HC : forall h cs, Forall P cs -> P (MCont h cs).
  Hypothesis HU : forall h p, P (MUnknown h p).
  Hypothesis HP : forall h l r cs, Forall P cs -> P (MPre h l r cs).
  Fixpoint mbox_ind' (t : mbox) : P t :=
    match t with
    | MLeaf h l r => HL h l r
    | MCont h cs => HC h cs ((fix go (cs : list mbox) : Forall P cs :=
                                match cs with [] => Forall_nil _ | c :: t => Forall_cons _ (mbox_ind' c) (go t) end) cs)
    | MUnknown h p => HU h p
    | MPre h l r cs => HP h l r cs ((fix go (cs : list mbox) : Forall P cs :=
                                match cs with [] => Forall_nil _ | c :: t => Forall_cons _ (mbox_ind' c) (go t) end) cs)
    end.
End MboxInd.

Fixpoint size_ok (t : mbox) : bool :=
  match t with
  | MLeaf _ l _ => leaf_size_guard l && (if leaf_large l then true else size_leaf l <? 4294967296)
  | MCont h cs => (lenN (h_name h) =? 4) && (8 + sumN (map size_box cs) <? 4294967296) && forallb size_ok cs
  | MUnknown h p => (lenN (h_name h) =? 4) && (h_size h =? (if 8 <? h_len h then 16 else 8) + lenN p) &&
                    (h_size h <? (if 8 <? h_len h then 18446744073709551616 else 4294967296))
  | MPre _ l _ cs => leaf_size_guard l && negb (leaf_large l) &&
                     (size_leaf l + sumN (map size_box cs) <? 4294967296) && forallb size_ok cs
  end.

(* the property at one node: the encoder succeeds, writes Size() bytes, and the size field it writes first
   is Size() *)
Definition node_ok (t : mbox) : Prop :=
  exists enc, raw_box false t = Ok enc /\ lenN enc = size_box t /\ hdr_size_field enc = size_box t.

Fixpoint every (P : mbox -> Prop) (t : mbox) : Prop :=
  P t /\ match t with
         | MCont _ cs => fold_right (fun c acc => every P c /\ acc) True cs
         | MPre _ _ _ cs => fold_right (fun c acc => every P c /\ acc) True cs
         | _ => True
         end.

Lemma every_head P t : every P t -> P t.
Proof. destruct t; cbn [every]; tauto. Qed.

(* moov_order is a permutation *)
Lemma moov_add_perm {A} (f : A -> bool) cs c : Permutation (moov_add f cs c) (cs ++ [c]).
Proof.
  unfold moov_add. destruct (moov_cond f cs c); [|reflexivity].
  set (k := S (last_trak_idx f cs 0 0)).
  rewrite <- (firstn_skipn k cs) at 3. rewrite <- app_assoc.
  apply Permutation_app_head. apply Permutation_cons_append.
Qed.

Lemma moov_order_perm {A} (f : A -> bool) cs : forall acc,
  Permutation (fold_left (moov_add f) cs acc) (acc ++ cs).
Proof.
  induction cs as [|c t IH]; intros acc; cbn [fold_left].
  - now rewrite app_nil_r.
  - rewrite IH. rewrite moov_add_perm. now rewrite <- app_assoc.
Qed.

Definition elen (e : bool * res (list N)) : N := match snd e with Ok b => lenN b | _ => 0 end.

Lemma cat_encs_ok l enc : cat_encs l = Ok enc ->
  (forall e, In e l -> exists b, snd e = Ok b) /\ lenN enc = sumN (map elen l).
Proof.
  revert enc. induction l as [|e t IH]; intros enc H; cbn [cat_encs fold_right] in H.
  - injection H as <-. split; [intros e []|reflexivity].
  - fold (cat_encs t) in H. destruct (snd e) as [b| | |] eqn:Ee; try discriminate.
    destruct (cat_encs t) as [bt| | |] eqn:Et; try discriminate.
    cbn [rcat] in H. injection H as <-. destruct (IH _ eq_refl) as [Hall Hlen]. split.
    + intros e' [<-|Hin]; [now exists b|now apply Hall].
    + cbn [map sumN]. unfold elen at 1. rewrite Ee, lenN_app, Hlen. reflexivity.
Qed.

Lemma sumN_perm (l l' : list N) : Permutation l l' -> sumN l = sumN l'.
Proof. induction 1; cbn [sumN]; lia. Qed.

Lemma every_children P cs : Forall (every P) cs -> fold_right (fun c acc => every P c /\ acc) True cs.
Proof. induction 1; cbn [fold_right]; auto. Qed.

Lemma rcat_ok_inv a r enc : rcat (Ok a) r = Ok enc -> exists b, r = Ok b /\ enc = a ++ b.
Proof. destruct r as [b| | |]; cbn [rcat]; try discriminate. intros [= <-]. now exists b. Qed.

(* the children of a container or of a prefixed box, written in any order: the property holds at every node of each,
   and together they are as long as their Size()s say *)
Lemma children_ok cs encs body :
  Forall (fun c => size_ok c = true -> forall enc, raw_box false c = Ok enc -> every node_ok c) cs ->
  forallb size_ok cs = true -> Permutation encs (map (genc false) cs) -> cat_encs encs = Ok body ->
  Forall (every node_ok) cs /\ lenN body = sumN (map size_box cs).
Proof.
  intros IH Hcs Hperm Hbody. destruct (cat_encs_ok _ _ Hbody) as [Hok Hlen].
  rewrite Hlen, (sumN_perm _ _ (Permutation_map elen Hperm)). clear Hlen Hbody.
  assert (Hok' : forall c, In c cs -> exists b, raw_box false c = Ok b).
  { intros c Hin. apply (Hok (genc false c)). eapply Permutation_in; [symmetry; exact Hperm|]. now apply in_map. }
  clear Hok Hperm. induction cs as [|c t IHt]; [split; [constructor|reflexivity]|].
  cbn [forallb] in Hcs. apply andb_true_iff in Hcs. destruct Hcs as [Hc Ht]. inversion IH as [|? ? IHc IHr]; subst.
  destruct (Hok' c (or_introl eq_refl)) as (b & Hb). pose proof (IHc Hc _ Hb) as Hev.
  destruct (IHt IHr Ht (fun c' Hin => Hok' c' (or_intror Hin))) as [Hf Hsum].
  split; [now constructor|]. cbn [map sumN]. rewrite Hsum. f_equal.
  unfold elen, genc. cbn [snd]. rewrite Hb. destruct (every_head _ _ Hev) as (e' & He' & Hl' & _).
  rewrite Hb in He'. now injection He' as <-.
Qed.

Lemma tree_size t : size_ok t = true -> forall enc, raw_box false t = Ok enc -> every node_ok t.
Proof.
  induction t as [h l r|h cs IH|h p|h l r cs IH] using mbox_ind'; intros Hs enc He; cbn [size_ok] in Hs.
  - (* leaf *)
    apply andb_true_iff in Hs. destruct Hs as [Hg Hfit]. cbn [every]. split; [|exact I].
    exists enc. cbn [raw_box size_box] in *. split; [assumption|].
    pose proof (leaf_size _ _ He Hg) as Hl. split; [assumption|].
    unfold raw_leaf in He. destruct (body_leaf l (dflt_rsv l)) as [b| | |]; try discriminate.
    injection He as <-. unfold leaf_hdr in *. destruct (leaf_large l) eqn:El.
    + destruct l; try discriminate El. cbn [leaf_size_guard] in Hg. apply N.ltb_lt in Hg.
      apply hdr_field_large; [reflexivity|]. cbn [size_leaf].
      destruct (large || (4294967287 <? lenN data)); lia.
    + apply N.ltb_lt in Hfit. apply hdr_field_compact. split; [|assumption].
      rewrite <- Hl. unfold enc_hdr. rewrite !lenN_app, lenN_be_enc, (leaf_name_len _ Hg). lia.
  - (* container: the children may have been re-ordered (moov) *)
    apply andb_true_iff in Hs. destruct Hs as [Hs Hcs]. apply andb_true_iff in Hs. destruct Hs as [Hn Hfit].
    apply N.eqb_eq in Hn. apply N.ltb_lt in Hfit.
    pose proof He as He0. rewrite raw_box_cont in He. cbv zeta in He.
    set (encs' := if bytes_eqb (h_name h) n_moov then moov_order fst (map (genc false) cs) else map (genc false) cs) in *.
    assert (Hperm : Permutation encs' (map (genc false) cs)).
    { unfold encs'. destruct (bytes_eqb (h_name h) n_moov); [|reflexivity]. unfold moov_order. now rewrite moov_order_perm. }
    assert (Ha : rcat (Ok (enc_hdr (h_name h) (8 + sumN (map size_box cs)))) (cat_encs encs') = Ok enc).
    { destruct (bytes_eqb (h_name h) n_moof); [destruct (moof_pre cs); try discriminate|]; exact He. }
    destruct (rcat_ok_inv _ _ _ Ha) as (body & Hbody & ->).
    destruct (children_ok cs encs' body IH Hcs Hperm Hbody) as [Hev Hlen].
    cbn [every]. split; [|now apply every_children].
    eexists. split; [exact He0|]. cbn [size_box]. split.
    + unfold enc_hdr. rewrite !lenN_app, lenN_be_enc, Hn, Hlen. lia.
    + apply hdr_field_compact. lia.
  - (* unknown *)
    apply andb_true_iff in Hs. destruct Hs as [Hs H2]. apply andb_true_iff in Hs. destruct Hs as [Hn H1].
    apply N.eqb_eq in H1, Hn. apply N.ltb_lt in H2.
    cbn [every]. split; [|exact I]. cbn [raw_box] in He. injection He as <-.
    eexists. split; [reflexivity|]. cbn [size_box]. destruct (8 <? h_len h); split.
    + unfold enc_hdr_large. rewrite !lenN_app, !lenN_be_enc, Hn. lia.
    + apply hdr_field_large; assumption.
    + unfold enc_hdr. rewrite !lenN_app, lenN_be_enc, Hn. lia.
    + apply hdr_field_compact. lia.
  - (* prefixed box *)
    apply andb_true_iff in Hs. destruct Hs as [Hs Hcs]. apply andb_true_iff in Hs. destruct Hs as [Hs Hfit].
    apply andb_true_iff in Hs. destruct Hs as [Hg Hnl]. apply negb_true_iff in Hnl. apply N.ltb_lt in Hfit.
    pose proof (leaf_name_len l Hg) as Hn. pose proof He as He0.
    rewrite raw_box_pre in He. destruct (rcat_ok_inv _ _ _ He) as (tl & Htl & ->).
    destruct (body_leaf l (dflt_rsv l)) as [b| | |] eqn:Eb; try discriminate.
    destruct (rcat_ok_inv _ _ _ Htl) as (body & Hbody & ->).
    assert (Hlb : 8 + lenN b = size_leaf l).
    { assert (Hr : raw_leaf l (dflt_rsv l) = Ok (leaf_hdr l ++ b)) by (unfold raw_leaf; now rewrite Eb).
      pose proof (leaf_size _ _ Hr Hg) as Hl. unfold leaf_hdr in Hl. rewrite Hnl in Hl.
      unfold enc_hdr in Hl. rewrite !lenN_app, lenN_be_enc, Hn in Hl. lia. }
    destruct (children_ok cs _ body IH Hcs (Permutation_refl _) Hbody) as [Hev Hlen].
    cbn [every]. split; [|now apply every_children].
    eexists. split; [exact He0|]. cbn [size_box]. split.
    + unfold enc_hdr. rewrite !lenN_app, lenN_be_enc, Hn, Hlen. lia.
    + apply hdr_field_compact. lia.
Qed.

Lemma tree_size_top t enc : size_ok t = true -> raw_box false t = Ok enc ->
  lenN enc = size_box t /\ hdr_size_field enc = size_box t.
Proof.
  intros Hs He. destruct (every_head _ _ (tree_size t Hs enc He)) as (e' & He' & Hl & Hf).
  rewrite He in He'. injection He' as <-. now split.
Qed.

Lemma forallb_impl_Forall {A} (p q : A -> bool) cs :
  Forall (fun c => p c = true -> q c = true) cs -> forallb p cs = true -> forallb q cs = true.
Proof.
  induction 1 as [|c t Hc _ IH]; [reflexivity|]. cbn [forallb]. intros H. apply andb_true_iff in H. destruct H as [H1 H2].
  now rewrite (Hc H1), (IH H2).
Qed.

Lemma size_ok_fits t : size_ok t = true -> enc_fits t = true.
Proof.
  induction t as [h l r|h cs IH|h p|h l r cs IH] using mbox_ind'; cbn [size_ok enc_fits]; intros H.
  - apply andb_true_iff in H. destruct H as [_ H]. destruct (leaf_large l); [reflexivity|exact H].
  - apply andb_true_iff in H. destruct H as [H Hcs]. apply andb_true_iff in H. destruct H as [_ Hf].
    rewrite Hf. exact (forallb_impl_Forall _ _ cs IH Hcs).
  - apply andb_true_iff in H. destruct H as [_ H]. destruct (8 <? h_len h); [reflexivity|exact H].
  - apply andb_true_iff in H. destruct H as [H Hcs]. apply andb_true_iff in H. destruct H as [_ Hf].
    rewrite Hf. exact (forallb_impl_Forall _ _ cs IH Hcs).
Qed.

Lemma size_ok_caps t : size_ok t = true -> caps_ok t = true.
Proof.
  induction t as [h l r|h cs IH|h p|h l r cs IH] using mbox_ind'; cbn [size_ok caps_ok]; intros H.
  - apply andb_true_iff in H. destruct H as [Hg _].
    destruct (raw_leaf l (dflt_rsv l)) as [b| | |] eqn:E; try (destruct l; reflexivity).
    rewrite <- (leaf_size _ _ E Hg), N.leb_refl. destruct l; reflexivity.
  - apply andb_true_iff in H. destruct H as [_ Hcs]. exact (forallb_impl_Forall _ _ cs IH Hcs).
  - apply andb_true_iff in H. destruct H as [H _]. apply andb_true_iff in H. destruct H as [_ H].
    apply N.eqb_eq in H. apply N.leb_le. destruct (8 <? h_len h); lia.
  - apply andb_true_iff in H. destruct H as [_ Hcs]. exact (forallb_impl_Forall _ _ cs IH Hcs).
Qed.

Lemma encode_w_size t enc : size_ok t = true -> encode_w t = Ok enc ->
  lenN enc = size_box t /\ hdr_size_field enc = size_box t.
Proof.
  intros Hs H. unfold encode_w in H. destruct (raw_box false t) as [b| | |] eqn:E; try discriminate.
  destruct (enc_fits t && caps_ok t); [|discriminate]. injection H as <-. now apply tree_size_top.
Qed.

Lemma encode_sw_size t enc : size_ok t = true -> encode_sw t = Ok enc ->
  lenN enc = size_box t /\ hdr_size_field enc = size_box t.
Proof.
  intros Hs H. unfold encode_sw in H. destruct (raw_box false t) as [b| | |] eqn:E; try discriminate.
  destruct (enc_fits t && (lenN b <=? size_box t)); [|discriminate]. injection H as <-. now apply tree_size_top.
Qed.

Lemma encode_ok t enc : size_ok t = true -> raw_box false t = Ok enc ->
  encode_w t = Ok enc /\ encode_sw t = Ok enc.
Proof.
  intros Hs He. destruct (tree_size_top _ _ Hs He) as [Hl _].
  unfold encode_w, encode_sw. rewrite He, (size_ok_fits _ Hs), (size_ok_caps _ Hs). cbn [andb].
  rewrite Hl, N.leb_refl. now split.
Qed.
