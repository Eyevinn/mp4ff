(* C02AggProgProofs.v — progressive (non-fragmented) files: File.Encode writes f.Children in order, one box per child;
   nothing but mdat.LargeSize changes (moov with its stco / co64 chunk offsets is an opaque, stateless box: it is
   written as it is); every box has the length Size() reports afterwards, so the file positions computed from
   Size() / HeaderSize() are the positions in the output - in particular where each mdat payload begins, which is what
   the chunk offsets point into.  A file whose mdat boxes already have their LargeSize decided (after one Size(),
   Info or Encode, or decoded with the header it needs) is not changed at all: the offsets stay valid. *)
From V.lib Require Import Base.
From V.c05 Require Import C05Model C05FragModel C05CodecModel.
From V.c02 Require Import C02AggModel C02AggSizeProofs C02AggOptProofs C02AggFragProofs C02AggFileProofs C02AggCapModel.

(* a written box and the child (in the state afterwards) it comes from *)
Definition child_box (c : fchild) (b : list N) : Prop :=
  lenN b = fc_size c /\ box_ok b = true /\
  match c with
  | FcMdat md => exists hd, b = hd ++ md_written md /\ lenN hd = md_header_size md
  | _ => True
  end.

Lemma enc_hdr_large_len ty sz large hd : lenN ty = 4 -> enc_hdr_large ty sz large = Ok hd -> lenN hd = if large then 16 else 8.
Proof.
  intros Ht. unfold enc_hdr_large. destruct (negb large && (TWO32 <=? sz)); [discriminate|]. intros E. apply ok_inj in E. subst hd.
  destruct large; rewrite !lenN_app, ?lenN_be32, ?lenN_be64, Ht; reflexivity.
Qed.

Lemma fc_child_box c c' bs : fc_encode c = (c', Ok bs) -> fc_wf c = true ->
  c' = fc_touch c /\ exists b, bs = [b] /\ child_box c' b.
Proof.
  intros H W. destruct (fc_encode_inv c c' bs H) as (-> & b & Eb & ->). destruct (fc_bytes_ok c b Eb W) as [L B].
  split; [reflexivity|]. exists b. split; [reflexivity|]. split; [rewrite fc_size_touch; exact L|]. split; [exact B|].
  destruct c as [m|md|o]; cbn [fc_touch]; try exact I. cbn [fc_bytes amd_enc snd] in Eb.
  destruct (enc_hdr_large TY_MDAT (md_size (md_size_touch md)) (md_large (md_size_touch md))) as [hd| | |] eqn:Eh;
    cbn [rbind] in Eb; try discriminate. apply ok_inj in Eb. subst b. exists hd. split; [reflexivity|].
  rewrite (enc_hdr_large_len TY_MDAT _ _ _ (eq_refl : lenN TY_MDAT = 4) Eh). reflexivity.
Qed.

Lemma enc_children_boxes cs : forall cs' boxes, enc_seq fc_encode cs = (cs', Ok boxes) -> forallb fc_wf cs = true ->
  cs' = map fc_touch cs /\ Forall2 child_box cs' boxes.
Proof.
  intros cs' boxes H. apply enc_seq_ok in H. induction H as [|c c' b rest rest' b2 Ec _ IH]; intros W; [split; [reflexivity|constructor]|].
  cbn [forallb] in W. apply andb_true_iff in W. destruct W as [W1 W2].
  destruct (fc_child_box _ _ _ Ec W1) as (-> & x & -> & Hx). destruct (IH W2) as [-> F].
  split; [reflexivity|]. cbn [app]. constructor; assumption.
Qed.

Lemma payload_starts_out cs : forall boxes pos, Forall2 child_box cs boxes ->
  out_payload_starts pos cs boxes = payload_starts pos cs.
Proof.
  induction cs as [|c rest IH]; intros boxes pos F; inversion F as [|? b ? bs Hc Hr]; subst; [reflexivity|].
  destruct Hc as (L & _ & M). destruct c as [m|md|o]; cbn [out_payload_starts payload_starts].
  - rewrite L. cbn [fc_size]. apply IH. exact Hr.
  - destruct M as (hd & -> & Hh). cbn [fc_size] in L. rewrite (IH _ _ Hr), L. f_equal. rewrite <- L, lenN_app, N.add_sub, Hh. reflexivity.
  - rewrite L. cbn [fc_size]. apply IH. exact Hr.
Qed.

(* where box number k of the output begins: the sum of the Size() values of the children before it *)
Lemma box_lengths cs boxes : Forall2 child_box cs boxes -> map (fun b => lenN b) boxes = map fc_size cs.
Proof. induction 1 as [|c b cs bs H _ IH]; [reflexivity|]. cbn [map]. rewrite IH. destruct H as [-> _]. reflexivity. Qed.

(* a progressive file: ftyp, moov (opaque), mdat with 4 payload bytes, a free box; mdat payload at 8 + 16 + 8 = 32 *)
Definition ex_prog : afile :=
  let ftyp := mkObox [102; 116; 121; 112] 8 [0; 0; 0; 8; 102; 116; 121; 112] false in
  let moov := mkObox [109; 111; 111; 118] 16 [0; 0; 0; 16; 109; 111; 111; 118; 0; 0; 0; 8; 102; 114; 101; 101] false in
  mkAfile false 0 false false None [] [] None [FcOther ftyp; FcOther moov; FcMdat (mkMdat [1; 2; 3; 4] [] 0 false)].

Theorem file_progressive f f' boxes :
  afile_seg_mode f = false -> afile_encode f = (f', Ok boxes) -> afile_wf f = true ->
  f' = afile_with f (fl_segs f) (map fc_touch (fl_children f)) /\
  Forall2 child_box (fl_children f') boxes /\
  map (fun b => lenN b) boxes = map fc_size (fl_children f') /\
  out_payload_starts 0 (fl_children f') boxes = payload_starts 0 (fl_children f') /\
  (Forall (fun c => fc_touch c = c) (fl_children f) -> f' = f /\ payload_starts 0 (fl_children f') = payload_starts 0 (fl_children f)).
Proof.
  intros Hm H W. unfold afile_encode in H. rewrite Hm in H.
  destruct (fl_fragmented f && negb (fl_mode f =? 0) && negb (fl_mode f =? 1)); [discriminate|].
  destruct (enc_children (fl_children f)) as [cs' r] eqn:E. injection H as <- ->. unfold enc_children in E.
  assert (Wc : forallb fc_wf (fl_children f) = true).
  { unfold afile_wf in W. apply andb_true_iff in W. destruct W as [_ W]. exact W. }
  destruct (enc_children_boxes _ _ _ E Wc) as [-> F].
  split; [reflexivity|]. cbn [afile_with fl_children]. split; [exact F|]. split; [apply box_lengths; exact F|].
  split; [apply payload_starts_out; exact F|].
  intros T. assert (Hmap : map fc_touch (fl_children f) = fl_children f).
  { clear - T. induction T as [|c l Hc _ IH]; [reflexivity|]. cbn [map]. rewrite Hc, IH. reflexivity. }
  rewrite Hmap. split; [destruct f; reflexivity|reflexivity].
Qed.

Lemma ex_prog_ok : afile_wf ex_prog = true /\ afile_seg_mode ex_prog = false /\
  exists boxes, afile_encode ex_prog = (ex_prog, Ok boxes) /\ payload_starts 0 (fl_children ex_prog) = [32] /\
    out_payload_starts 0 (fl_children ex_prog) boxes = [32].
Proof. split; [reflexivity|]. split; [reflexivity|]. eexists. split; [vm_compute; reflexivity|]. split; reflexivity. Qed.
