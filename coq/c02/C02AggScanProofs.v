(* C02AggScanProofs.v — the reader's view of an output: following the size fields from the first byte recovers
   exactly the boxes that were written (no gap, no overlap, nothing left over). *)
From V.lib Require Import Base.
From V.c05 Require Import C05CodecModel.
From V.c02 Require Import C02AggModel C02AggSizeProofs C02AggFragProofs C02AggFileProofs.

(* the length announced by the box header at the start of bs (compact, or size field 1 + 64-bit largesize) *)
Definition box_len (bs : list N) : option N :=
  match rd32 bs with
  | Some (sz, rest) =>
      if sz =? 1 then
        match rest with
        | _ :: _ :: _ :: _ :: r2 => match rd64 r2 with Some (lg, _) => Some lg | None => None end
        | _ => None
        end
      else Some sz
  | None => None
  end.

(* split a byte string into boxes by their size fields; None: a size field below 8 or beyond the end *)
Fixpoint scan (fuel : nat) (bs : list N) : option (list (list N)) :=
  match bs with
  | [] => Some []
  | _ =>
      match fuel with
      | O => None
      | S f =>
          match box_len bs with
          | Some n =>
              if (n <? 8) || (lenN bs <? n) then None
              else match scan f (skipn (N.to_nat n) bs) with
                   | Some r => Some (firstn (N.to_nat n) bs :: r)
                   | None => None
                   end
          | None => None
          end
      end
  end.

Lemma rd32_app b tl v rest : rd32 b = Some (v, rest) -> rd32 (b ++ tl) = Some (v, rest ++ tl).
Proof. destruct b as [|a [|b1 [|c [|d r]]]]; cbn [rd32]; try discriminate. intros [= <- <-]. reflexivity. Qed.

Lemma rd64_app b tl v rest : rd64 b = Some (v, rest) -> rd64 (b ++ tl) = Some (v, rest ++ tl).
Proof.
  unfold rd64. destruct (rd32 b) as [[h l1]|] eqn:E1; [|discriminate]. rewrite (rd32_app _ tl _ _ E1).
  destruct (rd32 l1) as [[lo l2]|] eqn:E2; [|discriminate]. rewrite (rd32_app _ tl _ _ E2). intros [= <- <-]. reflexivity.
Qed.

Lemma box_ok_len b tl : box_ok b = true -> box_len (b ++ tl) = Some (lenN b) /\ 8 <= lenN b.
Proof.
  unfold box_ok, box_len. destruct (rd32 b) as [[sz rest]|] eqn:E; [|discriminate]. rewrite (rd32_app _ tl _ _ E).
  destruct (sz =? 1) eqn:E1.
  - destruct rest as [|t1 [|t2 [|t3 [|t4 r2]]]]; try discriminate. cbn [app].
    destruct (rd64 r2) as [[lg r3]|] eqn:E2; [|discriminate]. rewrite (rd64_app _ tl _ _ E2).
    intros H. apply N.eqb_eq in H. subst lg. split; [reflexivity|].
    (* at least 16 bytes: 4 + 4 + 8 *)
    destruct b as [|a [|b1 [|c [|d r]]]]; cbn [rd32] in E; try discriminate. injection E as _ Er. subst r.
    unfold rd64 in E2. destruct (rd32 r2) as [[h l1]|] eqn:Ea; [|discriminate].
    destruct r2 as [|x1 [|x2 [|x3 [|x4 r5]]]]; cbn [rd32] in Ea; try discriminate.
    unfold lenN. cbn [length]. lia.
  - intros H. apply andb_true_iff in H. destruct H as [H1 H2]. apply N.eqb_eq in H1. apply N.leb_le in H2. subst sz.
    split; [reflexivity|exact H2].
Qed.

Theorem scan_all_ok boxes : all_ok boxes -> scan (length boxes) (concat boxes) = Some boxes.
Proof.
  induction 1 as [|b rest Hb _ IH]; [reflexivity|]. cbn [concat length].
  destruct (box_ok_len b (concat rest) Hb) as [L G].
  assert (Hne : exists x t, b ++ concat rest = x :: t).
  { destruct b as [|x t]; [unfold lenN in G; cbn [length] in G; lia|]. exists x, (t ++ concat rest). reflexivity. }
  destruct Hne as (x & t & Hx). cbn [scan]. rewrite Hx. rewrite <- Hx. rewrite L.
  assert (C1 : (lenN b <? 8) = false) by (apply N.ltb_ge; exact G).
  assert (C2 : (lenN (b ++ concat rest) <? lenN b) = false) by (apply N.ltb_ge; rewrite lenN_app; lia).
  rewrite C1, C2. cbn [orb].
  assert (Hn : N.to_nat (lenN b) = length b) by (unfold lenN; apply Nat2N.id). rewrite Hn.
  rewrite skipn_app, skipn_all, Nat.sub_diag. cbn [skipn app]. rewrite IH.
  rewrite firstn_app, firstn_all, Nat.sub_diag. cbn [firstn]. rewrite app_nil_r. reflexivity.
Qed.

Lemma fragment_scan fr fr' boxes : afrag_encode fr = (fr', Ok boxes) -> afrag_wf fr = true ->
  scan (length boxes) (concat boxes) = Some boxes.
Proof. intros H W. apply scan_all_ok. apply (fragment_size fr fr' boxes H W). Qed.

Lemma segment_scan s s' boxes : aseg_encode s = (s', Ok boxes) -> aseg_wf s = true ->
  scan (length boxes) (concat boxes) = Some boxes.
Proof. intros H W. apply scan_all_ok. apply (segment_size s s' boxes H W). Qed.

Lemma file_scan f f' boxes : afile_encode f = (f', Ok boxes) -> afile_wf f = true ->
  scan (length boxes) (concat boxes) = Some boxes.
Proof. intros H W. apply scan_all_ok. apply (file_size f f' boxes H W). Qed.

(* inside a container: after the 8 header bytes, the size fields recover exactly the children *)
Lemma container_scan ty b kids : lenN ty = 4 -> tiled_container ty b kids -> scan (length kids) (skipn 8 b) = Some kids.
Proof.
  intros Hty (Hb & Hk & _ & _). assert (L : length ty = 4%nat) by (apply Nat2N.inj; exact Hty).
  rewrite Hb, !skipn_app. change (length (be32 (lenN b))) with 4%nat. rewrite L, (skipn_all2 ty) by (rewrite L; apply le_n).
  change (skipn 8 (be32 (lenN b))) with (@nil N). cbn [Nat.sub skipn app]. apply scan_all_ok. exact Hk.
Qed.
