(* C02AggSencDecProofs.v — the SencBox states the decoders produce (DecodeSenc / DecodeSencSR, then optionally
   ParseReadBox): which of them have Size() = bytes written.
   - a box as the first phase leaves it (read, parsed or not) is exact: Size() (the remembered readBoxSize) bytes are
     written, with a correct size field - since repo commit 954ff09 also when sample_count is 0 and bytes follow
     (C02-K1 / K2 / K4, refuted for the text before it);
   - after a successful ParseReadBox the encoders write calcSize() bytes while Size() still answers readBoxSize:
     equal exactly when the second phase consumed all the bytes (`senc_parse_exact`), which the sub-sample path checks
     and, since repo commit 4cf4f8b, the path without sub-samples too: every decoded and parsed box is exact
     (C02_senc_parsed_exact); the text before 4cf4f8b is refuted (C02-K5). *)
From V.lib Require Import Base.
From V.c05 Require Import C05CodecModel C05CodecProofs.
From V.c02 Require Import C02AggModel C02AggSizeProofs C02AggSencModel C02AggSencProofs.

Lemma lenN_skipn {A} (k : nat) (l : list A) : lenN (skipn k l) = lenN l - N.of_nat k.
Proof. unfold lenN. rewrite skipn_length. lia. Qed.

Lemma lenN_firstn_le {A} (k : nat) (l : list A) : N.of_nat k <= lenN l -> lenN (firstn k l) = N.of_nat k.
Proof. intros H. apply lenN_firstn. unfold lenN in H. lia. Qed.

Lemma lenN_0_nil {A} (l : list A) : lenN l = 0 -> l = [].
Proof. destruct l; [reflexivity|]. unfold lenN. cbn [length]. lia. Qed.

Lemma sn_use_subs_flags s f : sn_use_subs (sn_with_flags s f) = N.testbit f B_SUBS.
Proof. reflexivity. Qed.

(* what DecodeSenc leaves *)
Definition decoded (hsize hlen : N) (payload : list N) (s : senc) : Prop :=
  senc_decode hsize hlen payload = Ok s /\ lenN payload + hlen = hsize.

Lemma decoded_fields hsize hlen payload s : decoded hsize hlen payload s ->
  sn_ivsize s = 0 /\ sn_ivs s = [] /\ sn_subs s = [] /\ sn_read s = 16 + lenN (sn_raw s) /\
  sn_np s = negb ((sn_count s =? 0) || (lenN (sn_raw s) =? 0)) /\
  (sn_use_subs s = true -> 2 * sn_count s <= lenN (sn_raw s)).
Proof.
  intros [H L]. unfold senc_decode in H.
  destruct (hsize <? 16); [discriminate|]. destruct (lenN payload <? 8) eqn:E8; [discriminate|].
  destruct (0 <? rd32_at payload 0 / 16777216); [discriminate|].
  set (raw := skipn 8 payload) in *.
  assert (Hraw : lenN raw = lenN payload - 8) by (unfold raw; rewrite lenN_skipn; lia). clearbody raw.
  destruct (N.testbit (rd32_at payload 0 mod 16777216) B_SUBS && (lenN raw <? 2 * rd32_at payload 4)) eqn:Ef; [discriminate|].
  injection H as <-. cbn [sn_ivsize sn_ivs sn_subs sn_read sn_raw sn_np sn_count]. apply N.ltb_ge in E8.
  repeat split. { clear - Hraw L E8. lia. }
  unfold sn_use_subs. cbn [sn_flags]. intros Hf. rewrite Hf in Ef. cbn [andb] in Ef. apply N.ltb_ge in Ef. exact Ef.
Qed.

Lemma setflag_no_subs s : sn_subs s = [] -> senc_setflag s = s.
Proof. intros H. unfold senc_setflag. rewrite H. reflexivity. Qed.

(* the body EncodeSWNoHdr writes for a freshly decoded box is its rawData *)
Lemma decoded_body hsize hlen payload s : decoded hsize hlen payload s -> senc_body s = Ok (sn_raw s).
Proof.
  intros D. destruct (decoded_fields _ _ _ _ D) as (Hi & Hv & Hs & Hr & Hn & Hf).
  unfold senc_body, senc_body_gen. rewrite Hn.
  destruct (sn_count s =? 0) eqn:Ec; cbn [orb negb andb].
  - assert (H0 : (0 <? sn_read s) = true) by (apply N.ltb_lt; lia). rewrite H0. reflexivity.
  - destruct (lenN (sn_raw s) =? 0) eqn:El; cbn [negb]; [|reflexivity].
    apply N.eqb_eq in El. rewrite Hi. cbn [N.eqb andb].
    destruct (sn_use_subs s) eqn:Eu.
    + apply N.eqb_neq in Ec. specialize (Hf eq_refl). lia.
    + cbn [negb]. rewrite (lenN_0_nil _ El). reflexivity.
Qed.

Definition senc_written (r : res (list N)) (n : N) : Prop := exists b, r = Ok b /\ lenN b = n /\ box_ok b = true.

(* C02 for a SencBox as the decoders leave it: Size() = bytes written = size field, on both encode paths, and
   nothing is changed by Encode / EncodeSW / Info *)
Theorem senc_decoded_exact hsize hlen payload s : decoded hsize hlen payload s ->
  senc_size s = Ok (sn_read s) /\
  ((TWO32 <=? sn_read s) = true /\ snd (senc_encode_w s) = Err /\ snd (senc_encode_sw s) = Err
   \/ fst (senc_encode_w s) = s /\ fst (senc_encode_sw s) = s /\
      senc_written (snd (senc_encode_w s)) (sn_read s) /\ snd (senc_encode_sw s) = snd (senc_encode_w s)) /\
  senc_info s = Ok s.
Proof.
  intros D. destruct (decoded_fields _ _ _ _ D) as (Hi & Hv & Hs & Hr & Hn & Hf).
  assert (Hpos : (0 <? sn_read s) = true) by (apply N.ltb_lt; lia).
  assert (Hsz : senc_size s = Ok (sn_read s)) by (unfold senc_size; rewrite Hpos; reflexivity).
  split; [exact Hsz|]. pose proof (setflag_no_subs s Hs) as Hfix. split.
  - pose proof (senc_encode_eq s _ _ Hfix Hsz (decoded_body _ _ _ _ D)) as E.
    destruct (TWO32 <=? sn_read s) eqn:Eb; [left; split; [reflexivity|exact E]|]. right. destruct E as [Esw Ew]. apply N.leb_gt in Eb.
    assert (F : (sn_read s <? 16 + lenN (sn_raw s)) = false) by (apply N.ltb_ge; lia). rewrite F in Ew. rewrite Ew, Esw. cbn [fst snd].
    repeat split. exists (senc_box s (sn_read s) (sn_raw s)).
    repeat split; [rewrite lenN_senc_box; lia|apply senc_box_ok; [exact Eb|lia]].
  - unfold senc_info. rewrite Hfix. destruct (sn_np s); [reflexivity|].
    unfold senc_index_bad. rewrite Hi, Hv, Hs. cbn [N.ltb N.compare andb orb].
    destruct (sn_use_subs s) eqn:Eu; [|reflexivity]. specialize (Hf eq_refl). cbn [andb].
    (* not readButNotParsed with the flag: the count is 0 (the decoder refused 2*count > len(raw) = 0 otherwise) *)
    change (lenN (@nil (list subsample))) with 0.
    destruct (0 <? sn_count s) eqn:Ec; [|reflexivity]. apply N.ltb_lt in Ec. exfalso.
    destruct (sn_count s =? 0) eqn:E0; [apply N.eqb_eq in E0; lia|]. cbn [orb] in Hn.
    destruct (lenN (sn_raw s) =? 0) eqn:El; [apply N.eqb_eq in El; lia|discriminate].
Qed.

(* the encoder text before 954ff09: a decoded box with sample_count 0 and bytes after it says Size() 20 and writes 16
   bytes (findings C02-K1, K2, K4; C01-K71, K78) *)
Lemma senc_zero_pinned_refuted : exists hsize hlen payload s b,
  decoded hsize hlen payload s /\ senc_size s = Ok 20 /\
  (do p <- senc_all_gen false s; Ok (snd p)) = Ok b /\ lenN b = 16.
Proof.
  exists 20, 8, [0; 0; 0; 0; 0; 0; 0; 0; 1; 2; 3; 4].
  eexists. eexists. split; [split; [vm_compute; reflexivity|reflexivity]|]. split; [reflexivity|]. split; reflexivity.
Qed.
Lemma rd_ivs_spec n piv : forall d, N.of_nat n * N.of_nat piv <= lenN d ->
  length (rd_ivs n piv d) = n /\ Forall (fun iv => lenN iv = N.of_nat piv) (rd_ivs n piv d).
Proof.
  induction n as [|n IH]; intros d H; [split; [reflexivity|constructor]|].
  cbn [rd_ivs]. destruct (IH (skipn piv d)) as [L F]. { rewrite lenN_skipn. lia. }
  split; [cbn [length]; rewrite L; reflexivity|]. constructor; [|exact F]. apply lenN_firstn_le. lia.
Qed.

Lemma rd_patterns_length k : forall d, length (rd_patterns k d) = k.
Proof. induction k as [|k IH]; intros d; [reflexivity|]. cbn [rd_patterns length]. rewrite IH. reflexivity. Qed.

Lemma parse_samples_spec n piv : forall d ivs sss rest,
  parse_samples n piv d = Some (ivs, sss, rest) ->
  length sss = n /\ length ivs = (if 0 <? piv then n else 0%nat) /\ Forall (fun iv => lenN iv = piv) ivs /\
  lenN d = N.of_nat n * piv + sumN (map (fun l : list subsample => 2 + 6 * lenN l) sss) + lenN rest.
Proof.
  induction n as [|n IH]; intros d ivs sss rest H.
  - injection H as <- <- <-. split; [reflexivity|]. split; [destruct (0 <? piv); reflexivity|]. split; [constructor|].
    cbn [map sumN]. lia.
  - cbn [parse_samples] in H.
    destruct ((0 <? piv) && (lenN d <? piv)) eqn:E1; [discriminate|].
    set (d1 := skipn (N.to_nat piv) d) in *.
    destruct (lenN d1 <? 2) eqn:E2; [discriminate|].
    set (cnt := match d1 with a :: b :: _ => a * 256 + b | _ => 0 end) in *.
    set (d2 := skipn 2 d1) in *.
    destruct (lenN d2 <? cnt * 6) eqn:E3; [discriminate|].
    destruct (parse_samples n piv (skipn (N.to_nat (cnt * 6)) d2)) as [[[ivs' sss'] rest']|] eqn:Ep; [|discriminate].
    injection H as <- <- <-. destruct (IH _ _ _ _ Ep) as (L1 & L2 & F & S).
    apply N.ltb_ge in E2, E3.
    assert (Hpiv : piv <= lenN d).
    { destruct (0 <? piv) eqn:Ez; cbn [andb] in E1; [apply N.ltb_ge in E1; exact E1|apply N.ltb_ge in Ez; lia]. }
    assert (Hd1 : lenN d1 = lenN d - piv) by (unfold d1; rewrite lenN_skipn; lia).
    assert (Hd2 : lenN d2 = lenN d1 - 2) by (unfold d2; rewrite lenN_skipn; lia).
    rewrite lenN_skipn in S.
    assert (Hss : lenN (rd_patterns (N.to_nat cnt) d2) = cnt) by (unfold lenN; rewrite rd_patterns_length; lia).
    clearbody cnt d2 d1.
    split; [cbn [length]; rewrite L1; reflexivity|]. split; [|split].
    + destruct (0 <? piv); [cbn [length]; rewrite L2; reflexivity|exact L2].
    + destruct (0 <? piv) eqn:Ez; [|exact F]. constructor; [|exact F].
      rewrite lenN_firstn_le; lia.
    + cbn [map sumN]. rewrite Hss. lia.
Qed.

(* after a successful ParseReadBox on a decoded box: the parsed fields are consistent (one IV of perSampleIVSize
   bytes per sample when that is not 0, one sub-sample table per sample when the flag is set), and *)
Definition senc_parse_exact (s : senc) : bool :=
  sn_use_subs s || (sn_count s * sn_ivsize s =? lenN (sn_raw s)).

Definition sn_read0 (s : senc) : senc :=
  mkSenc (sn_version s) (sn_flags s) (sn_count s) (sn_ivsize s) (sn_ivs s) (sn_subs s) (sn_raw s) (sn_np s) 0.

Lemma body_read0 s : sn_count s <> 0 -> senc_body s = senc_body (sn_read0 s).
Proof.
  intros H. unfold senc_body, senc_body_gen, sn_read0, senc_index_bad, sn_use_subs, senc_sample_bytes, sn_use_subs.
  cbn [sn_np sn_count sn_read sn_raw sn_ivsize sn_flags sn_ivs sn_subs].
  apply N.eqb_neq in H. rewrite H. cbn [andb]. reflexivity.
Qed.

Record parsed_facts (s s' : senc) : Prop := {
  pf_np : sn_np s' = false; pf_count : sn_count s' = sn_count s; pf_raw : sn_raw s' = sn_raw s;
  pf_read : sn_read s' = sn_read s; pf_flags : sn_flags s' = sn_flags s; pf_version : sn_version s' = sn_version s;
  pf_ivs : ivs_ok s' = true; pf_subs : subs_ok s' = true; pf_flag : flag_ok s' = true;
  pf_len : 16 + sn_count s' * sn_ivsize s'
           + (if sn_use_subs s' then sumN (map (fun l : list subsample => 2 + 6 * lenN l) (sn_subs s')) else 0)
           = (if sn_use_subs s' then 16 + lenN (sn_raw s') else 16 + sn_count s' * sn_ivsize s');
  pf_fit : sn_count s' * sn_ivsize s' <= lenN (sn_raw s');
  pf_exact : lenN (sn_raw s') < 4294967296 -> sn_use_subs s' = true \/ sn_count s' * sn_ivsize s' = lenN (sn_raw s') }.

Lemma fill_facts s piv s1 : sn_ivs s = [] -> sn_use_subs s = true -> sn_np s = true ->
  senc_fill s piv = (s1, true) -> parsed_facts s (sn_parsed s1).
Proof.
  intros Hiv Hu Hnp H. unfold senc_fill in H.
  destruct (parse_samples (N.to_nat (sn_count s)) piv (sn_raw s)) as [[[ivs sss] rest]|] eqn:Ep; [|discriminate].
  destruct rest; [|discriminate]. injection H as <-.
  destruct (parse_samples_spec _ _ _ _ _ _ Ep) as (L1 & L2 & F & S). rewrite Hiv. cbn [app].
  assert (Hl1 : lenN sss = sn_count s) by (unfold lenN; rewrite L1; lia).
  constructor; cbn [sn_parsed sn_np sn_count sn_raw sn_read sn_flags sn_version sn_ivsize sn_ivs sn_subs]; try reflexivity.
  - unfold ivs_ok. cbn [sn_parsed sn_with_iv sn_ivsize sn_ivs sn_count]. destruct (0 <? piv) eqn:Ez; [|reflexivity].
    apply andb_true_iff. split; [apply N.eqb_eq; unfold lenN; rewrite L2; lia|].
    apply forallb_forall. intros iv Hin. apply N.eqb_eq. exact (proj1 (Forall_forall _ _) F iv Hin).
  - unfold subs_ok, sn_use_subs in *. cbn [sn_parsed sn_with_iv sn_flags sn_subs sn_count]. rewrite Hu. apply N.eqb_eq. exact Hl1.
  - unfold flag_ok, sn_use_subs in *. cbn [sn_parsed sn_with_iv sn_flags]. rewrite Hu. apply orb_true_r.
  - unfold sn_use_subs in *. cbn [sn_parsed sn_with_iv sn_flags]. rewrite Hu. change (lenN (@nil N)) with 0 in S. lia.
  - change (lenN (@nil N)) with 0 in S. lia.
  - intros _. left. unfold sn_use_subs in *. cbn [sn_parsed sn_with_iv sn_flags]. exact Hu.
Qed.

(* the path without sub-samples: count * piv bytes of data, and the IVs read from them (none when piv = 0) *)
Lemma nosub_facts s piv ivs : sn_use_subs s = false -> sn_subs s = [] -> piv * sn_count s = u32 (lenN (sn_raw s)) ->
  ((0 <? piv) = true -> length ivs = N.to_nat (sn_count s) /\ Forall (fun iv => lenN iv = piv) ivs) ->
  parsed_facts s (sn_parsed (sn_with_iv s piv ivs)).
Proof.
  intros Eu Hs El Hiv.
  assert (Hleft : u32 (lenN (sn_raw s)) <= lenN (sn_raw s)) by (unfold u32; apply N.mod_le; discriminate).
  constructor; unfold ivs_ok, subs_ok, flag_ok, has_subs, sn_use_subs in *;
    cbn [sn_parsed sn_with_iv sn_np sn_count sn_raw sn_read sn_flags sn_version sn_ivsize sn_ivs sn_subs]; rewrite ?Eu, ?Hs; try reflexivity.
  - destruct (0 <? piv); [|reflexivity]. destruct (Hiv eq_refl) as [L F].
    apply andb_true_iff. split; [apply N.eqb_eq; unfold lenN; rewrite L; lia|].
    apply forallb_forall. intros iv Hin. apply N.eqb_eq. exact (proj1 (Forall_forall _ _) F iv Hin).
  - lia.
  - lia.
  - intros Hlt. right. rewrite N.mul_comm, El. unfold u32. apply N.mod_small. exact Hlt.
Qed.

Lemma parse_facts hsize hlen payload s piv0 s' :
  decoded hsize hlen payload s -> piv0 < 256 -> senc_parse s piv0 = (s', Ok tt) -> parsed_facts s s'.
Proof.
  intros D Hp H. destruct (decoded_fields _ _ _ _ D) as (Hi & Hv & Hs & Hr & Hn & Hf).
  unfold senc_parse, senc_parse_gen in H. destruct (sn_np s) eqn:Enp; cbn [negb] in H; [|discriminate]. cbv zeta in H.
  assert (Hc : sn_count s <> 0).
  { intros E. rewrite E in Hn. cbn [N.eqb orb negb] in Hn. discriminate. }
  (* a perSampleIVSize given by the caller is stored first; both paths overwrite it *)
  set (s0 := if piv0 =? 0 then s else sn_with_iv s piv0 (sn_ivs s)) in *.
  assert (F0 : forall p, senc_fill s0 p = senc_fill s p) by (intros p; unfold s0; destruct (piv0 =? 0); reflexivity).
  assert (W0 : forall p x l, sn_with_iv (sn_with_iv s0 p x) p l = sn_with_iv s p l)
    by (intros; unfold s0; destruct (piv0 =? 0); reflexivity).
  destruct (sn_use_subs s) eqn:Eu; cbn [negb] in H.
  - (* sub-sample path: up to three attempts; a failed one resets IVs and SubSamples, so the next sees the box as decoded *)
    assert (Fail : forall t p t1, sn_ivs t = [] -> senc_fill t p = (t1, false) ->
              sn_ivs t1 = [] /\ forall q, senc_fill t1 q = senc_fill t q).
    { intros t p t1 Ht E. unfold senc_fill in E.
      destruct (parse_samples _ p (sn_raw t)) as [[[ivs sss] rest]|]; [destruct rest|]; injection E as <-; try discriminate;
        (split; [reflexivity|]); intros q; unfold senc_fill; cbn [sn_version sn_flags sn_count sn_ivs sn_raw sn_np sn_read];
        rewrite Ht; reflexivity. }
    rewrite !F0 in H. destruct (negb (piv0 =? 0)).
    + destruct (senc_fill s piv0) as [s1 ok] eqn:E1. destruct ok; [|discriminate]. injection H as <-.
      exact (fill_facts s piv0 s1 Hv Eu Enp E1).
    + destruct (senc_fill s 0) as [s1 ok1] eqn:E1. destruct ok1; [injection H as <-; exact (fill_facts s 0 s1 Hv Eu Enp E1)|].
      destruct (Fail s 0 s1 Hv E1) as [V1 G1].
      destruct (senc_fill s1 8) as [s2 ok2] eqn:E2.
      destruct ok2; [injection H as <-; rewrite G1 in E2; exact (fill_facts s 8 s2 Hv Eu Enp E2)|].
      destruct (Fail s1 8 s2 V1 E2) as [_ G2]. rewrite G2, G1 in H.
      destruct (senc_fill s 16) as [s3 ok3] eqn:E3. destruct ok3; [|discriminate].
      injection H as <-. exact (fill_facts s 16 s3 Hv Eu Enp E3).
  - (* no sub-samples *)
    assert (Ec : (sn_count s =? 0) = false) by (apply N.eqb_neq; exact Hc). rewrite Ec, andb_false_r, !W0 in H.
    set (piv := if piv0 =? 0 then u8 (u32 (lenN (sn_raw s)) / sn_count s) else piv0) in *.
    destruct (negb (piv * sn_count s =? u32 (lenN (sn_raw s)))) eqn:El; [discriminate|]. apply negb_false_iff, N.eqb_eq in El.
    destruct (piv =? 0) eqn:Ez.
    + injection H as <-. apply nosub_facts; try assumption. apply N.eqb_eq in Ez. rewrite Ez. discriminate.
    + destruct ((piv =? 8) || (piv =? 16)); [|discriminate]. injection H as <-. apply nosub_facts; try assumption.
      intros _. assert (Hleft : u32 (lenN (sn_raw s)) <= lenN (sn_raw s)) by (unfold u32; apply N.mod_le; discriminate).
      destruct (rd_ivs_spec (N.to_nat (sn_count s)) (N.to_nat piv) (sn_raw s)) as [L F]; [lia|]. split; [exact L|].
      apply Forall_forall. intros iv Hin. rewrite (proj1 (Forall_forall _ _) F iv Hin). lia.
Qed.

(* The bytes a parsed box writes: 16 + count * perSampleIVSize + the sub-sample tables - calcSize() - while Size()
   answers the remembered readBoxSize = 16 + len(rawData). *)
Theorem senc_parsed_bytes hsize hlen payload s piv0 s' :
  decoded hsize hlen payload s -> piv0 < 256 -> senc_parse s piv0 = (s', Ok tt) ->
  senc_size s' = Ok (16 + lenN (sn_raw s')) /\ senc_setflag s' = s' /\
  exists body, senc_body s' = Ok body /\
    lenN body = (if sn_use_subs s' then lenN (sn_raw s') else sn_count s' * sn_ivsize s') /\
    lenN body <= lenN (sn_raw s').
Proof.
  intros D Hp H. pose proof (parse_facts _ _ _ _ _ _ D Hp H) as [].
  destruct (decoded_fields _ _ _ _ D) as (Hi & Hv & Hs & Hr & Hn & Hf).
  assert (Hc : sn_count s' <> 0).
  { rewrite pf_count0. intros E. unfold senc_parse, senc_parse_gen in H. destruct (sn_np s) eqn:Enp; [|discriminate].
    rewrite E in Hn. cbn [N.eqb orb negb] in Hn. discriminate. }
  split; [unfold senc_size; rewrite pf_read0, pf_raw0, Hr; assert (Hq : (0 <? 16 + lenN (sn_raw s)) = true) by (apply N.ltb_lt; lia);
          rewrite Hq; reflexivity|].
  split; [apply flag_ok_fix; exact pf_flag0|].
  assert (Hok : senc_ok (sn_read0 s') = true).
  { unfold senc_ok. change (flag_ok (sn_read0 s')) with (flag_ok s'). change (ivs_ok (sn_read0 s')) with (ivs_ok s').
    change (subs_ok (sn_read0 s')) with (subs_ok s'). change (sn_np (sn_read0 s')) with (sn_np s').
    change (sn_read (sn_read0 s')) with 0. rewrite pf_np0, pf_flag0, pf_ivs0, pf_subs0. reflexivity. }
  destruct (senc_ok_body _ Hok) as (body & Hb & _ & Hl). exists body.
  rewrite (body_read0 s' Hc). split; [exact Hb|].
  (* calcSize of the box, against what the second phase has read *)
  change (sn_use_subs (sn_read0 s')) with (sn_use_subs s') in Hl. cbn [sn_read0 sn_count sn_ivsize sn_subs] in Hl.
  destruct (sn_use_subs s'); split; lia.
Qed.

(* the exact guard: a decoded and parsed box has Size() = bytes written if and only if senc_parse_exact; otherwise
   fewer bytes than Size() are written, under a size field that says Size() *)
Theorem senc_parsed_exact hsize hlen payload s piv0 s' :
  decoded hsize hlen payload s -> piv0 < 256 -> senc_parse s piv0 = (s', Ok tt) -> 16 + lenN (sn_raw s') < TWO32 ->
  exists b, senc_encode_w s' = (s', Ok b) /\ senc_encode_sw s' = (s', Ok b) /\
    senc_size s' = Ok (16 + lenN (sn_raw s')) /\ firstn 4 b = be32 (16 + lenN (sn_raw s')) /\
    lenN b <= 16 + lenN (sn_raw s') /\
    (lenN b = 16 + lenN (sn_raw s') <-> senc_parse_exact s' = true).
Proof.
  intros D Hp H Hsmall. destruct (senc_parsed_bytes _ _ _ _ _ _ D Hp H) as (Hsz & Hfix & body & Hb & Hl & Hle).
  pose proof (senc_encode_eq s' _ body Hfix Hsz Hb) as E. rewrite (proj2 (N.leb_gt _ _) Hsmall) in E. destruct E as [Esw Ew].
  assert (F : (16 + lenN (sn_raw s') <? 16 + lenN body) = false) by (apply N.ltb_ge; lia). rewrite F in Ew.
  exists (senc_box s' (16 + lenN (sn_raw s')) body). rewrite lenN_senc_box.
  split; [exact Ew|]. split; [exact Esw|]. split; [exact Hsz|]. split; [reflexivity|]. split; [lia|].
  unfold senc_parse_exact. rewrite Hl. destruct (sn_use_subs s'); cbn [orb].
  - split; [reflexivity|lia].
  - rewrite N.eqb_eq. lia.
Qed.

(* since 4cf4f8b the guard always holds: every box the two decoding phases accept writes exactly Size() bytes *)
Theorem senc_parsed_always_exact hsize hlen payload s piv0 s' :
  decoded hsize hlen payload s -> piv0 < 256 -> senc_parse s piv0 = (s', Ok tt) -> 16 + lenN (sn_raw s') < TWO32 ->
  senc_parse_exact s' = true /\
  exists b, senc_encode_w s' = (s', Ok b) /\ senc_encode_sw s' = (s', Ok b) /\
    senc_size s' = Ok (lenN b) /\ firstn 4 b = be32 (lenN b).
Proof.
  intros D Hp H Hs. pose proof (parse_facts _ _ _ _ _ _ D Hp H) as F.
  assert (E : senc_parse_exact s' = true).
  { unfold senc_parse_exact. destruct (pf_exact _ _ F) as [Hx|Hx];
      [unfold TWO32 in Hs; lia|rewrite Hx; reflexivity|rewrite Hx, N.eqb_refl; apply orb_true_r]. }
  split; [exact E|]. destruct (senc_parsed_exact _ _ _ _ _ _ D Hp H Hs) as (b & H1 & H2 & H3 & H4 & _ & H6).
  exists b. rewrite (proj2 H6 E). repeat split; assumption.
Qed.

(* C02-K5 (the text before 4cf4f8b): two samples, no sub-sample flag, 17 bytes of per-sample data; ParseReadBox(0) infers
   8-byte IVs and leaves one byte: Size() 33, 32 bytes written; now the second phase refuses the box *)
Lemma senc_parse_trailing_refuted : exists hsize hlen payload s s' b,
  decoded hsize hlen payload s /\ senc_parse_pinned s 0 = (s', Ok tt) /\ senc_parse_exact s' = false /\
  senc_size s' = Ok 33 /\ senc_encode_w s' = (s', Ok b) /\ lenN b = 32 /\ snd (senc_parse s 0) = Err.
Proof.
  exists 33, 8, ([0; 0; 0; 0; 0; 0; 0; 2] ++ repeat 7 17).
  eexists. eexists. eexists. split; [split; [vm_compute; reflexivity|reflexivity]|].
  split; [vm_compute; reflexivity|]. split; [reflexivity|]. split; [reflexivity|]. split; [vm_compute; reflexivity|].
  split; reflexivity.
Qed.

(* the hypotheses are satisfiable: two samples with 8-byte IVs and sub-samples, parsed with an unknown IV size *)
Lemma senc_parsed_example : exists s s',
  decoded 48 8 ([0; 0; 0; 2; 0; 0; 0; 2] ++ [1;2;3;4;5;6;7;8; 0;1; 0;5; 0;0;0;9] ++ [1;2;3;4;5;6;7;9; 0;1; 0;7; 0;0;1;0]) s /\
  senc_parse s 0 = (s', Ok tt) /\ senc_parse_exact s' = true /\ sn_ivsize s' = 8 /\ senc_size s' = Ok 48 /\
  exists b, senc_encode_w s' = (s', Ok b) /\ lenN b = 48.
Proof.
  eexists. eexists. split; [split; [vm_compute; reflexivity|reflexivity]|]. split; [vm_compute; reflexivity|].
  split; [reflexivity|]. split; [reflexivity|]. split; [reflexivity|]. eexists. split; [vm_compute; reflexivity|reflexivity].
Qed.
