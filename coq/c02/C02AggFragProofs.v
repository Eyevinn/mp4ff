(* C02AggFragProofs.v — Fragment.Encode: bytes written = Size() afterwards (= beforehand without optimisation),
   the output is tiled by its size fields, a second Encode changes nothing and writes the same bytes;
   histories of Size / Info / Encode / EncodeSW. *)
From V.lib Require Import Base.
From V.c05 Require Import C05Model C05FragModel C05CodecModel.
From V.c02 Require Import C02AggModel C02AggSizeProofs C02AggOptProofs.

Definition oall {A} (f : A -> bool) (o : option A) : bool := match o with Some x => f x | None => true end.

Definition afrag_wf (fr : afrag) : bool :=
  obs_wf (af_pre fr) && oall amoof_wf (af_moof fr) && obs_wf (af_mid fr) && oall md_wf (af_mdat fr) && obs_wf (af_post fr).

Definition all_ok (boxes : list (list N)) : Prop := Forall (fun b => box_ok b = true) boxes.
Definition lens (boxes : list (list N)) : N := sumN (map (fun b => lenN b) boxes).

Lemma lens_app a b : lens (a ++ b) = lens a + lens b.
Proof. apply sumN_lens_app. Qed.
Lemma lens_concat boxes : lenN (concat boxes) = lens boxes.
Proof. apply lenN_concat. Qed.
Lemma lens_cons b bs : lens (b :: bs) = lenN b + lens bs.
Proof. reflexivity. Qed.
Lemma lens_nil : lens [] = 0.
Proof. reflexivity. Qed.
Lemma lens_one b : lens [b] = lenN b.
Proof. unfold lens. cbn [map sumN]. lia. Qed.
Lemma lens5 (b1 : list (list N)) b2 b3 b4 b5 :
  lens (b1 ++ [b2] ++ b3 ++ [b4] ++ b5) = lens b1 + lenN b2 + lens b3 + lenN b4 + lens b5.
Proof. rewrite !lens_app, !lens_one. lia. Qed.

Inductive enc_facts (fr fr' : afrag) (boxes : list (list N)) : Prop :=
| EncFacts (m m1 : amoof) (md : mdat) (m2 : amoof) (md2 : mdat)
    (b1 : list (list N)) (b2 : list N) (b3 : list (list N)) (b4 : list N) (b5 : list (list N))
    (ef_moof : af_moof fr = Some m)
    (ef_opt : (if af_opt fr then optimize_moof m else Ok m) = Ok m1)
    (ef_mdat : af_mdat fr = Some md)
    (ef_off : aset_offsets m1 md = (m2, md2))
    (ef_pre : enc_list enc_obox (af_pre fr) = Ok b1)
    (ef_menc : amoof_enc m2 = Ok b2)
    (ef_mid : enc_list enc_obox (af_mid fr) = Ok b3)
    (ef_denc : amd_enc md2 = (md_size_touch md2, Ok b4))
    (ef_post : enc_list enc_obox (af_post fr) = Ok b5)
    (ef_state : fr' = af_set fr (Some m2) (Some (md_size_touch md2)))
    (ef_boxes : boxes = b1 ++ [b2] ++ b3 ++ [b4] ++ b5).

Lemma afrag_encode_ok fr fr' boxes : afrag_encode fr = (fr', Ok boxes) <-> enc_facts fr fr' boxes.
Proof.
  split.
  - unfold afrag_encode. destruct (af_moof fr) as [m|] eqn:Em; [|discriminate].
    destruct (if af_opt fr then optimize_moof m else Ok m) as [m1| | |] eqn:Eo; try discriminate.
    destruct (af_mdat fr) as [md|] eqn:Ed; [|discriminate].
    destruct (aset_offsets m1 md) as [m2 md2] eqn:Es.
    destruct (enc_list enc_obox (af_pre fr)) as [b1| | |] eqn:E1; try discriminate.
    destruct (amoof_enc m2) as [b2| | |] eqn:E2; try discriminate.
    destruct (enc_list enc_obox (af_mid fr)) as [b3| | |] eqn:E3; try discriminate.
    destruct (amd_enc md2) as [md3 r4] eqn:E4. pose proof (amd_enc_state _ _ _ E4) as ->.
    destruct r4 as [b4| | |]; try discriminate.
    destruct (enc_list enc_obox (af_post fr)) as [b5| | |] eqn:E5; try discriminate.
    intros [= <- <-].
    exact (EncFacts fr _ _ m m1 md m2 md2 b1 b2 b3 b4 b5 Em Eo Ed Es E1 E2 E3 E4 E5 eq_refl eq_refl).
  - intros [m m1 md m2 md2 b1 b2 b3 b4 b5 Em Eo Ed Es E1 E2 E3 E4 E5 -> ->].
    unfold afrag_encode. rewrite Em, Eo, Ed, Es, E1, E2, E3, E4, E5. reflexivity.
Qed.

Lemma afrag_encode_inv fr fr' boxes : afrag_encode fr = (fr', Ok boxes) -> enc_facts fr fr' boxes.
Proof. apply afrag_encode_ok. Qed.

Lemma afrag_wf_parts fr : afrag_wf fr = true ->
  obs_wf (af_pre fr) = true /\ oall amoof_wf (af_moof fr) = true /\ obs_wf (af_mid fr) = true /\
  oall md_wf (af_mdat fr) = true /\ obs_wf (af_post fr) = true.
Proof.
  unfold afrag_wf. intros H. repeat (apply andb_true_iff in H; destruct H as [H ?]). repeat split; assumption.
Qed.

Lemma md_wf_after md md2 : (md2 = md \/ md2 = md_size_touch md) -> md_wf md = true -> md_wf md2 = true /\ md_size md2 = md_size md.
Proof. intros [->| ->] W; [split; [exact W|reflexivity]|]. rewrite md_wf_touch, md_size_touch_eq. split; [exact W|reflexivity]. Qed.

(* the moof and mdat that are written (after the optional optimisation and SetTrunDataOffsets) are well-formed
   when those of the fragment are, and differ from the optimised moof in data offsets only *)
Lemma enc_state_wf fr m m1 md m2 md2 :
  (if af_opt fr then optimize_moof m else Ok m) = Ok m1 -> aset_offsets m1 md = (m2, md2) ->
  amoof_wf m = true -> md_wf md = true ->
  moof_dv m1 m2 /\ amoof_wf m2 = true /\ md_wf md2 = true /\ md_size md2 = md_size md.
Proof.
  intros Eo Es Wm Wd. destruct (aset_offsets_dv m1 md m2 md2 Es) as [D Hmd].
  split; [exact D|]. split; [|exact (md_wf_after md md2 Hmd Wd)].
  rewrite (moof_dv_wf m1 m2 D). destruct (af_opt fr); [rewrite (optimize_moof_wf m m1 Eo)|injection Eo as <-]; exact Wm.
Qed.

Theorem fragment_size fr fr' boxes :
  afrag_encode fr = (fr', Ok boxes) -> afrag_wf fr = true ->
  lenN (concat boxes) = afrag_size fr' /\ lens boxes = afrag_size fr' /\ all_ok boxes /\
  (af_opt fr = false -> afrag_size fr = afrag_size fr') /\ afrag_wf fr' = true.
Proof.
  intros H W. destruct (afrag_encode_inv fr fr' boxes H) as [m m1 md m2 md2 b1 b2 b3 b4 b5 Em Eo Ed Es E1 E2 E3 E4 E5 -> ->].
  destruct (afrag_wf_parts fr W) as (W1 & W2 & W3 & W4 & W5). rewrite Em in W2. rewrite Ed in W4. cbn [oall] in W2, W4.
  destruct (enc_state_wf fr m m1 md m2 md2 Eo Es W2 W4) as (D & Wm2 & Wd2 & Sd2).
  destruct (enc_oboxes_ok _ _ E1 W1) as [L1 B1]. destruct (enc_oboxes_ok _ _ E3 W3) as [L3 B3].
  destruct (enc_oboxes_ok _ _ E5 W5) as [L5 B5].
  destruct (amoof_enc_ok m2 b2 E2 Wm2) as [L2 (kids & _ & T2)].
  destruct (amd_enc_ok md2 _ b4 E4 Wd2) as (_ & L4 & B4).
  assert (Hl : lens (b1 ++ [b2] ++ b3 ++ [b4] ++ b5) = afrag_size (af_set fr (Some m2) (Some (md_size_touch md2)))).
  { rewrite lens5. unfold afrag_size, lens. cbn [af_set af_pre af_moof af_mid af_mdat af_post osize].
    rewrite L1, L3, L5, L2, L4, md_size_touch_eq. reflexivity. }
  split; [rewrite lens_concat; exact Hl|]. split; [exact Hl|]. split; [|split].
  - unfold all_ok. repeat (apply Forall_app; split); try assumption.
    + constructor; [eapply tiled_box_ok; exact T2|constructor].
    + constructor; [exact B4|constructor].
  - intros Ho. rewrite Ho in Eo. injection Eo as <-.
    unfold afrag_size. cbn [af_set af_pre af_moof af_mid af_mdat af_post]. rewrite Em, Ed. cbn [osize].
    rewrite (moof_dv_size m m2 D), md_size_touch_eq, Sd2. reflexivity.
  - unfold afrag_wf. cbn [af_set af_pre af_moof af_mid af_mdat af_post oall]. rewrite W1, Wm2, W3, W5, md_wf_touch, Wd2. reflexivity.
Qed.

(* the moof that was written: a tiled container whose traf children are tiled containers *)
Theorem fragment_moof_tiled fr fr' boxes :
  afrag_encode fr = (fr', Ok boxes) -> afrag_wf fr = true ->
  exists m2 b2 kids, af_moof fr' = Some m2 /\ In b2 boxes /\ lenN b2 = amoof_size m2 /\
    tiled_container TY_MOOF b2 kids /\
    Forall2 (fun c k => match c with
                        | McTraf t => lenN k = atraf_size t /\
                                      exists tk, enc_list tc_enc t = Ok tk /\ tiled_container TY_TRAF k tk
                        | _ => lenN k = mc_size c
                        end) m2 kids.
Proof.
  intros H W. destruct (afrag_encode_inv fr fr' boxes H) as [m m1 md m2 md2 b1 b2 b3 b4 b5 Em Eo Ed Es E1 E2 E3 E4 E5 -> ->].
  destruct (afrag_wf_parts fr W) as (_ & W2 & _ & W4 & _). rewrite Em in W2. rewrite Ed in W4. cbn [oall] in W2, W4.
  destruct (enc_state_wf fr m m1 md m2 md2 Eo Es W2 W4) as (_ & Wm2 & _).
  destruct (amoof_enc_ok m2 b2 E2 Wm2) as [L2 (kids & K & T2)].
  exists m2, b2, kids. split; [reflexivity|]. split; [apply in_or_app; right; left; reflexivity|].
  split; [exact L2|]. split; [exact T2|]. apply amoof_trafs_tiled; assumption.
Qed.

Definition settled {S} (step : S -> aop -> S * aout) (s : S) (boxes : list (list N)) (n : N) : Prop :=
  step s OpEncode = (s, OutBytes boxes) /\ step s OpEncodeSW = (s, OutBytes boxes) /\
  step s OpSize = (s, OutSize n) /\ step s OpInfo = (s, OutInfo).

Lemma afrag_encode_settles fr fr' boxes : afrag_encode fr = (fr', Ok boxes) -> afrag_encode fr' = (fr', Ok boxes).
Proof.
  intros H. destruct (afrag_encode_inv fr fr' boxes H) as [m m1 md m2 md2 b1 b2 b3 b4 b5 Em Eo Ed Es E1 E2 E3 E4 E5 -> ->].
  destruct (aset_offsets_dv m1 md m2 md2 Es) as [D _].
  apply afrag_encode_ok.
  apply (EncFacts _ _ _ m2 m2 (md_size_touch md2) m2 (md_size_touch md2) b1 b2 b3 b4 b5);
    cbn [af_set af_pre af_moof af_mid af_mdat af_post af_opt]; rewrite ?md_touch_idem; try reflexivity; try assumption.
  - (* the moof is optimised already *)
    destruct (af_opt fr); [|reflexivity]. apply moof_optimised_fix.
    rewrite (moof_dv_optimised m1 m2 D). exact (optimize_moof_optimised m m1 Eo).
  - (* and so are the offsets *)
    rewrite aset_offsets_touch, (aset_offsets_idem m1 md m2 md2 Es). reflexivity.
  - rewrite amd_enc_touch. exact E4.
Qed.

Lemma afrag_touch_settled fr fr' boxes : afrag_encode fr = (fr', Ok boxes) -> afrag_touch fr' = fr'.
Proof.
  intros H. destruct (afrag_encode_inv fr fr' boxes H) as [m m1 md m2 md2 b1 b2 b3 b4 b5 Em Eo Ed Es E1 E2 E3 E4 E5 -> ->].
  unfold afrag_touch, af_set. cbn [af_pre af_moof af_mid af_mdat af_post af_opt option_map]. rewrite md_touch_idem. reflexivity.
Qed.

(* Size() and Info change the structure by `touch` / `info` (MdatBox.Size() sets LargeSize) and Encode / EncodeSW
   are the same function of the structure: afrag_step, aseg_step, ainit_step and afile_step are instances *)
Definition agg_step {S} (size : S -> N) (touch info : S -> S) (enc : S -> S * res (list (list N))) (s : S) (o : aop)
  : S * aout :=
  match o with
  | OpSize => (touch s, OutSize (size s))
  | OpInfo => (info s, OutInfo)
  | OpEncode | OpEncodeSW => let '(s', r) := enc s in (s', out_of r)
  end.

Section AggStep.
  Context {S : Type} (size : S -> N) (touch info : S -> S) (enc : S -> S * res (list (list N))).

  Lemma agg_step_encode s o s' boxes :
    (o = OpEncode \/ o = OpEncodeSW) -> agg_step size touch info enc s o = (s', OutBytes boxes) -> enc s = (s', Ok boxes).
  Proof.
    intros [-> | ->]; cbn [agg_step]; destruct (enc s) as [x r]; destruct r; cbn [out_of]; intros H; try discriminate;
      injection H as <- <-; reflexivity.
  Qed.

  (* whatever relation Size(), Info and Encode keep, every operation keeps *)
  Lemma agg_step_rel (R : S -> S -> Prop) :
    (forall s, R s (touch s)) -> (forall s, R s (info s)) -> (forall s s' r, enc s = (s', r) -> R s s') ->
    forall s o s' out, agg_step size touch info enc s o = (s', out) -> R s s'.
  Proof.
    intros Ht Hi He s o s' out. destruct o; cbn [agg_step]; try (intros [= <- _]; auto).
    all: destruct (enc s) as [x r] eqn:E; intros [= <- _]; exact (He s x r E).
  Qed.

  (* a structure that a successful Encode leaves is settled *)
  Lemma agg_settles (wf : S -> bool) :
    (forall s s' boxes, enc s = (s', Ok boxes) -> wf s = true -> lenN (concat boxes) = size s') ->
    (forall s s' boxes, enc s = (s', Ok boxes) -> enc s' = (s', Ok boxes) /\ touch s' = s' /\ info s' = s') ->
    forall s s' boxes o, (o = OpEncode \/ o = OpEncodeSW) -> agg_step size touch info enc s o = (s', OutBytes boxes) ->
      wf s = true -> settled (agg_step size touch info enc) s' boxes (lenN (concat boxes)).
  Proof.
    intros Hsize Hset s s' boxes o Ho H W. apply (agg_step_encode s o s' boxes Ho) in H.
    destruct (Hset s s' boxes H) as (E & T & I). rewrite (Hsize s s' boxes H W).
    unfold settled. cbn [agg_step]. rewrite E, T, I. cbn [out_of]. repeat split.
  Qed.
End AggStep.

Theorem fragment_settles fr fr' boxes o :
  (o = OpEncode \/ o = OpEncodeSW) -> afrag_step fr o = (fr', OutBytes boxes) -> afrag_wf fr = true ->
  settled afrag_step fr' boxes (lenN (concat boxes)).
Proof.
  apply (agg_settles afrag_size afrag_touch afrag_touch afrag_encode afrag_wf).
  - intros s s' b H W. apply (fragment_size s s' b H W).
  - intros s s' b H. pose proof (afrag_touch_settled s s' b H) as T. split; [exact (afrag_encode_settles s s' b H)|split; exact T].
Qed.

Definition expected (boxes : list (list N)) (n : N) (o : aop) : aout :=
  match o with OpSize => OutSize n | OpInfo => OutInfo | OpEncode | OpEncodeSW => OutBytes boxes end.

Lemma run_hist_settled {S} (step : S -> aop -> S * aout) s boxes n :
  settled step s boxes n -> forall ops, run_hist step s ops = (map (expected boxes n) ops, s).
Proof.
  intros (H1 & H2 & H3 & H4) ops. induction ops as [|o rest IH]; [reflexivity|].
  cbn [run_hist map]. destruct o; cbn [expected]; rewrite ?H1, ?H2, ?H3, ?H4, IH; reflexivity.
Qed.

Lemma run_hist_app {S} (step : S -> aop -> S * aout) ops1 : forall s ops2,
  ~ In OutPanic (fst (run_hist step s ops1)) ->
  run_hist step s (ops1 ++ ops2) =
    (fst (run_hist step s ops1) ++ fst (run_hist step (snd (run_hist step s ops1)) ops2),
     snd (run_hist step (snd (run_hist step s ops1)) ops2)).
Proof.
  induction ops1 as [|o rest IH]; intros s ops2 Hn.
  - cbn [run_hist app fst snd]. destruct (run_hist step s ops2); reflexivity.
  - cbn [app run_hist] in *. destruct (step s o) as [s' out]. destruct out; cbn [fst snd] in *;
      try (specialize (IH s' ops2); destruct (run_hist step s' rest) as [outs s'']; cbn [fst snd] in *;
           rewrite IH by (intros F; apply Hn; right; exact F);
           destruct (run_hist step s'' ops2); reflexivity).
    exfalso. apply Hn. left. reflexivity.
Qed.

(* the invariant over arbitrary histories: once an Encode / EncodeSW has succeeded, every later Size() is the
   number of bytes written, every later Encode / EncodeSW writes the same bytes, and nothing changes any more *)
Theorem history_after_encode {S} (step : S -> aop -> S * aout) (wf : S -> bool)
  (settles : forall s s' boxes o, (o = OpEncode \/ o = OpEncodeSW) -> step s o = (s', OutBytes boxes) -> wf s = true ->
             settled step s' boxes (lenN (concat boxes)))
  s ops1 o ops2 s1 s2 boxes :
  snd (run_hist step s ops1) = s1 -> ~ In OutPanic (fst (run_hist step s ops1)) ->
  (o = OpEncode \/ o = OpEncodeSW) -> step s1 o = (s2, OutBytes boxes) -> wf s1 = true ->
  run_hist step s (ops1 ++ o :: ops2) =
    (fst (run_hist step s ops1) ++ OutBytes boxes :: map (expected boxes (lenN (concat boxes))) ops2, s2).
Proof.
  intros H1 Hn Ho Hs W. rewrite run_hist_app by exact Hn. rewrite H1. cbn [run_hist]. rewrite Hs.
  rewrite (run_hist_settled step s2 boxes _ (settles s1 s2 boxes o Ho Hs W)). reflexivity.
Qed.

Theorem fragment_history fr ops1 o ops2 fr1 fr2 boxes :
  snd (run_hist afrag_step fr ops1) = fr1 -> ~ In OutPanic (fst (run_hist afrag_step fr ops1)) ->
  (o = OpEncode \/ o = OpEncodeSW) -> afrag_step fr1 o = (fr2, OutBytes boxes) -> afrag_wf fr1 = true ->
  run_hist afrag_step fr (ops1 ++ o :: ops2) =
    (fst (run_hist afrag_step fr ops1) ++ OutBytes boxes :: map (expected boxes (lenN (concat boxes))) ops2, fr2).
Proof. exact (history_after_encode afrag_step afrag_wf fragment_settles fr ops1 o ops2 fr1 fr2 boxes). Qed.
