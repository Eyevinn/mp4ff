(* C02AggSizeProofs.v — bytes written = Size(), header size field = length of the box, container = header +
   children, for the boxes of the aggregate model (tfhd, tfdt, trun, mfhd, traf, moof, mdat). *)
From V.lib Require Import Base.
From V.c05 Require Import C05Model C05FragModel C05CodecModel C05CodecProofs.
From V.c02 Require Import C02AggModel.

Definition obs_wf (l : list obox) : bool := forallb ob_wf l.
Definition tc_wf (c : tchild) : bool := match c with TcOther o => ob_wf o | _ => true end.
Definition atraf_wf (t : atraf) : bool := forallb tc_wf t.
Definition mc_wf (c : mchild) : bool :=
  match c with McTraf t => atraf_wf t | McOther o => ob_wf o | McMfhd s => s <? TWO32 end.
Definition amoof_wf (m : amoof) : bool := forallb mc_wf m.
(* the mdat data is all in memory (nothing is written separately by the caller) and fits a Go slice *)
Definition md_wf (m : mdat) : bool := (md_lazy m =? 0) && (md_size m <? 18446744073709551616).

Lemma ok_inj {A} (a b : A) : Ok a = Ok b -> a = b.
Proof. intros [= H]. exact H. Qed.

Lemma Forall2_refl {A} (R : A -> A -> Prop) : (forall a, R a a) -> forall l, Forall2 R l l.
Proof. intros H l. induction l; constructor; auto. Qed.

Lemma Forall2_trans {A} (R : A -> A -> Prop) : (forall a b c, R a b -> R b c -> R a c) ->
  forall l1 l2 l3, Forall2 R l1 l2 -> Forall2 R l2 l3 -> Forall2 R l1 l3.
Proof.
  intros H l1 l2 l3 H1. revert l3. induction H1 as [|a b t1 t2 Hab _ IH]; intros l3 H2; inversion H2; subst; constructor; eauto.
Qed.

Lemma Forall2_impl {A B} (R Q : A -> B -> Prop) : (forall a b, R a b -> Q a b) -> forall l l', Forall2 R l l' -> Forall2 Q l l'.
Proof. intros H l l'. induction 1; constructor; auto. Qed.

Lemma Forall2_length_eq {A B} (R : A -> B -> Prop) l l' : Forall2 R l l' -> length l' = length l.
Proof. induction 1; cbn [length]; congruence. Qed.

(* a function that agrees on related elements agrees on related lists *)
Lemma Forall2_map_eq {A B} (R : A -> A -> Prop) (f : A -> B) :
  (forall a a', R a a' -> f a' = f a) -> forall l l', Forall2 R l l' -> map f l' = map f l.
Proof. intros H l l'. induction 1 as [|a a' t t' Ha _ IH]; [reflexivity|]. cbn [map]. rewrite (H a a' Ha), IH. reflexivity. Qed.

Lemma Forall2_forallb_eq {A} (R : A -> A -> Prop) (p : A -> bool) :
  (forall a a', R a a' -> p a' = p a) -> forall l l', Forall2 R l l' -> forallb p l' = forallb p l.
Proof. intros H l l'. induction 1 as [|a a' t t' Ha _ IH]; [reflexivity|]. cbn [forallb]. rewrite (H a a' Ha), IH. reflexivity. Qed.

Lemma Forall2_flat_map {A B} (R : A -> A -> Prop) (Q : B -> B -> Prop) (f : A -> list B) :
  (forall a a', R a a' -> Forall2 Q (f a) (f a')) -> forall l l', Forall2 R l l' -> Forall2 Q (flat_map f l) (flat_map f l').
Proof. intros H l l'. induction 1 as [|a a' t t' Ha _ IH]; [constructor|]. cbn [flat_map]. apply Forall2_app; auto. Qed.

Lemma lenN_be32 x : lenN (be32 x) = 4.
Proof. reflexivity. Qed.
Lemma lenN_be64 x : lenN (be64 x) = 8.
Proof. reflexivity. Qed.

Lemma lenN_if_be32 (b : bool) x : lenN (if b then be32 x else []) = 4 * b2n b.
Proof. destruct b; reflexivity. Qed.

Lemma lenN_concat (l : list (list N)) : lenN (concat l) = sumN (map (fun b => lenN b) l).
Proof. induction l as [|a t IH]; [reflexivity|]. cbn [concat map sumN]. rewrite lenN_app, IH. reflexivity. Qed.

Lemma lenN_firstn {A} (n : nat) (l : list A) : (n <= length l)%nat -> lenN (firstn n l) = N.of_nat n.
Proof. intros H. unfold lenN. rewrite firstn_length. f_equal. lia. Qed.

Lemma enc_hdr_ok ty sz hd : enc_hdr ty sz = Ok hd -> hd = be32 sz ++ ty /\ sz < TWO32.
Proof.
  unfold enc_hdr. destruct (TWO32 <=? sz) eqn:E; [discriminate|]. intros [= <-]. split; [reflexivity|].
  apply N.leb_gt in E. exact E.
Qed.

(* a compact header followed by anything: the size field is read back *)
Lemma box_ok_compact sz (ty body : list N) :
  lenN ty = 4 -> sz < TWO32 -> 8 <= sz -> lenN (be32 sz ++ ty ++ body) = sz -> box_ok (be32 sz ++ ty ++ body) = true.
Proof.
  intros Hty Hlt Hge Hlen. unfold box_ok. rewrite rd32_be32 by exact Hlt.
  destruct (sz =? 1) eqn:E1; [apply N.eqb_eq in E1; lia|].
  rewrite Hlen. rewrite N.eqb_refl. cbn [andb]. apply N.leb_le. exact Hge.
Qed.

Lemma box_ok_large sz (ty body : list N) :
  lenN ty = 4 -> sz < 18446744073709551616 -> lenN (be32 1 ++ ty ++ be64 sz ++ body) = sz ->
  box_ok (be32 1 ++ ty ++ be64 sz ++ body) = true.
Proof.
  intros Hty Hlt Hlen. unfold box_ok. rewrite rd32_be32 by (unfold TWO32; lia).
  cbn [N.eqb Pos.eqb].
  destruct ty as [|a [|b [|c [|d [|e ty']]]]]; try (unfold lenN in Hty; cbn [length] in Hty; lia).
  cbn [app]. rewrite rd64_be64 by exact Hlt.
  change (a :: b :: c :: d :: be64 sz ++ body) with ([a; b; c; d] ++ be64 sz ++ body).
  rewrite Hlen. apply N.eqb_refl.
Qed.

(* a compact header in front of a body that is 8 bytes shorter than the size it announces *)
Lemma hdr_body_ok ty sz hd body : lenN ty = 4 -> enc_hdr ty sz = Ok hd -> lenN body + 8 = sz ->
  lenN (hd ++ body) = sz /\ box_ok (hd ++ body) = true.
Proof.
  intros Hty E Hb. apply enc_hdr_ok in E. destruct E as [-> Hlt].
  assert (Hl : lenN ((be32 sz ++ ty) ++ body) = sz) by (rewrite !lenN_app, lenN_be32, Hty; lia).
  split; [exact Hl|]. rewrite <- app_assoc in *. apply box_ok_compact; [exact Hty|exact Hlt|lia|exact Hl].
Qed.

Lemma lenN_tfhd_body h : lenN (enc_tfhd_body h) + 8 = tfhd_size h.
Proof.
  unfold enc_tfhd_body, tfhd_size. rewrite !lenN_app, !lenN_be32, !lenN_if_be32.
  destruct (tf_has_bdo h); cbn [b2n]; rewrite ?lenN_be64, ?lenN_nil; lia.
Qed.

Lemma lenN_tfdt_body d : lenN (enc_tfdt_body d) + 8 = atfdt_size d.
Proof.
  unfold enc_tfdt_body, atfdt_size. rewrite lenN_app, lenN_be32.
  destruct (td_version d =? 0); rewrite ?lenN_be32, ?lenN_be64; lia.
Qed.

Lemma lenN_enc_sample t s :
  lenN (enc_sample t s) = 4 * b2n (has_dur t) + 4 * b2n (has_size t) + 4 * b2n (has_sflags t) + 4 * b2n (has_cto t).
Proof. unfold enc_sample. rewrite !lenN_app, !lenN_if_be32. lia. Qed.

Lemma lenN_flat_map_const {A} (f : A -> list N) k (l : list A) :
  (forall a, lenN (f a) = k) -> lenN (flat_map f l) = lenN l * k.
Proof.
  intros H. induction l as [|a t IH]; [reflexivity|]. cbn [flat_map]. rewrite lenN_app, H, IH, lenN_cons. lia.
Qed.

Lemma trun_count_le r : (N.to_nat (trun_count r) <= length (tr_samples r))%nat.
Proof.
  unfold trun_count, u32, lenN.
  pose proof (N.mod_le (N.of_nat (length (tr_samples r))) 4294967296 ltac:(lia)). lia.
Qed.

Lemma lenN_trun_body r : lenN (aenc_trun_body r) + 8 = trun_size r.
Proof.
  unfold aenc_trun_body, trun_size. rewrite !lenN_app, !lenN_be32, !lenN_if_be32.
  rewrite (lenN_flat_map_const _ _ _ (lenN_enc_sample r)).
  rewrite lenN_firstn by apply trun_count_le. rewrite N2Nat.id. fold (trun_count r). lia.
Qed.

Lemma aenc_tfhd_ok h b : aenc_tfhd h = Ok b -> lenN b = tfhd_size h /\ box_ok b = true.
Proof.
  unfold aenc_tfhd. destruct (enc_hdr TY_TFHD (tfhd_size h)) as [hd| | |] eqn:E; try discriminate.
  intros [= <-]. exact (hdr_body_ok TY_TFHD _ _ _ eq_refl E (lenN_tfhd_body h)).
Qed.

Lemma aenc_tfdt_ok d b : aenc_tfdt d = Ok b -> lenN b = atfdt_size d /\ box_ok b = true.
Proof.
  unfold aenc_tfdt. destruct (enc_hdr TY_TFDT (atfdt_size d)) as [hd| | |] eqn:E; try discriminate.
  intros [= <-]. exact (hdr_body_ok TY_TFDT _ _ _ eq_refl E (lenN_tfdt_body d)).
Qed.

Lemma aenc_trun_ok r b : aenc_trun r = Ok b -> lenN b = trun_size r /\ box_ok b = true.
Proof.
  unfold aenc_trun. destruct (enc_hdr TY_TRUN (trun_size r)) as [hd| | |] eqn:E; try discriminate.
  cbn [rbind]. destruct (doff_unset r); [discriminate|]. intros [= <-]. exact (hdr_body_ok TY_TRUN _ _ _ eq_refl E (lenN_trun_body r)).
Qed.

Lemma enc_obox_ok o b : enc_obox o = Ok b -> ob_wf o = true -> lenN b = ob_size o /\ box_ok b = true.
Proof.
  unfold enc_obox, ob_wf. destruct (ob_err o); [discriminate|]. intros [= <-] H.
  apply andb_true_iff in H. destruct H as [H1 H2]. apply N.eqb_eq in H1. split; assumption.
Qed.

Lemma enc_mfhd_ok s : s < TWO32 -> lenN (enc_mfhd s) = 16 /\ box_ok (enc_mfhd s) = true.
Proof.
  intros H. split; [reflexivity|]. unfold enc_mfhd.
  apply box_ok_compact; [reflexivity|unfold TWO32; lia|lia|reflexivity].
Qed.

Lemma enc_list_inv {A} (f : A -> res (list N)) l bs : enc_list f l = Ok bs <-> Forall2 (fun a b => f a = Ok b) l bs.
Proof.
  revert bs. induction l as [|a t IH]; intros bs; cbn [enc_list].
  - split; [intros [= <-]; constructor|intros H; inversion H; reflexivity].
  - split.
    + destruct (f a) as [b| | |] eqn:Ea; try discriminate. destruct (enc_list f t) as [r| | |]; try discriminate.
      intros [= <-]. constructor; [exact Ea|apply IH; reflexivity].
    + intros H. inversion H as [|? b ? r Ea Et]; subst. apply IH in Et. rewrite Ea, Et. reflexivity.
Qed.

(* what a loop of child encoders gives when every child writes its Size() and a correct header *)
Lemma enc_list_ok {A} (f : A -> res (list N)) (size : A -> N) (wf : A -> bool) :
  (forall a b, f a = Ok b -> wf a = true -> lenN b = size a /\ box_ok b = true) ->
  forall l bs, enc_list f l = Ok bs -> forallb wf l = true ->
    map (fun b => lenN b) bs = map size l /\ Forall (fun b => box_ok b = true) bs.
Proof.
  intros Hf l bs H. apply enc_list_inv in H. induction H as [|a b t r Ea _ IH]; intros W; [split; constructor|].
  cbn [forallb] in W. apply andb_true_iff in W. destruct W as [Wa Wt].
  destruct (Hf a b Ea Wa) as [L B]. destruct (IH Wt) as [L' B'].
  split; [cbn [map]; rewrite L, L'; reflexivity|constructor; assumption].
Qed.

(* a container box: compact header whose size field is the length of the box, then the children, each a box
   with a correct header; the length is the header plus the sum of the children *)
Definition tiled_container (ty b : list N) (kids : list (list N)) : Prop :=
  b = be32 (lenN b) ++ ty ++ concat kids /\ Forall (fun k => box_ok k = true) kids /\
  lenN b = 8 + sumN (map (fun k => lenN k) kids) /\ box_ok b = true.

Lemma container_ok (ty : list N) sz (kids : list (list N)) hd :
  lenN ty = 4 -> enc_hdr ty sz = Ok hd -> sz = 8 + sumN (map (fun k => lenN k) kids) ->
  Forall (fun k => box_ok k = true) kids ->
  lenN (hd ++ concat kids) = sz /\ tiled_container ty (hd ++ concat kids) kids.
Proof.
  intros Hty E Hsz Hk.
  destruct (hdr_body_ok ty sz hd (concat kids) Hty E) as [Hl B]. { rewrite lenN_concat. lia. }
  split; [exact Hl|]. apply enc_hdr_ok in E. destruct E as [-> _].
  unfold tiled_container. rewrite Hl, <- app_assoc in *. repeat split; assumption.
Qed.

Lemma tiled_box_ok ty b kids : tiled_container ty b kids -> box_ok b = true.
Proof. intros (_ & _ & _ & H). exact H. Qed.

(* EncodeContainer over children that each write their Size() and a correct header *)
Lemma enc_container_ok {A} (f : A -> res (list N)) (size : A -> N) (wf : A -> bool) ty l hd kids :
  (forall a b, f a = Ok b -> wf a = true -> lenN b = size a /\ box_ok b = true) ->
  lenN ty = 4 -> enc_hdr ty (8 + sumN (map size l)) = Ok hd -> enc_list f l = Ok kids -> forallb wf l = true ->
  lenN (hd ++ concat kids) = 8 + sumN (map size l) /\ tiled_container ty (hd ++ concat kids) kids.
Proof.
  intros Hf Hty E Ek W. destruct (enc_list_ok f size wf Hf l kids Ek W) as [L B].
  apply (container_ok ty _ kids hd Hty E); [rewrite L; reflexivity|exact B].
Qed.

Lemma tc_enc_ok c b : tc_enc c = Ok b -> tc_wf c = true -> lenN b = tc_size c /\ box_ok b = true.
Proof.
  destruct c as [h|d|r|o]; cbn [tc_enc tc_wf tc_size]; intros H W.
  - apply aenc_tfhd_ok; exact H.
  - apply aenc_tfdt_ok; exact H.
  - apply aenc_trun_ok; exact H.
  - apply enc_obox_ok; assumption.
Qed.

Lemma atraf_enc_ok t b : atraf_enc t = Ok b -> atraf_wf t = true ->
  lenN b = atraf_size t /\ exists kids, enc_list tc_enc t = Ok kids /\ tiled_container TY_TRAF b kids.
Proof.
  unfold atraf_enc. intros H W.
  destruct (enc_hdr TY_TRAF (atraf_size t)) as [hd| | |] eqn:E; try discriminate. cbn [rbind] in H.
  destruct (enc_list tc_enc t) as [cs| | |] eqn:Ec; try discriminate. cbn [rbind] in H. injection H as <-.
  destruct (enc_container_ok _ _ _ TY_TRAF _ _ _ tc_enc_ok eq_refl E Ec W) as [Hl T].
  split; [exact Hl|]. exists cs. split; [reflexivity|exact T].
Qed.

Lemma mc_enc_ok c b : mc_enc c = Ok b -> mc_wf c = true -> lenN b = mc_size c /\ box_ok b = true.
Proof.
  destruct c as [s|t|o]; cbn [mc_enc mc_wf mc_size]; intros H W.
  - injection H as <-. apply enc_mfhd_ok. apply N.ltb_lt. exact W.
  - destruct (atraf_enc_ok t b H W) as [L (kids & _ & T)]. split; [exact L|]. eapply tiled_box_ok. exact T.
  - apply enc_obox_ok; assumption.
Qed.

Lemma amoof_enc_ok m b : amoof_enc m = Ok b -> amoof_wf m = true ->
  lenN b = amoof_size m /\ exists kids, enc_list mc_enc m = Ok kids /\ tiled_container TY_MOOF b kids.
Proof.
  unfold amoof_enc. intros H W. destruct (existsb doff_unset (amoof_truns m)); [discriminate|].
  destruct (enc_hdr TY_MOOF (amoof_size m)) as [hd| | |] eqn:E; try discriminate. cbn [rbind] in H.
  destruct (enc_list mc_enc m) as [cs| | |] eqn:Ec; try discriminate. cbn [rbind] in H. injection H as <-.
  destruct (enc_container_ok _ _ _ TY_MOOF _ _ _ mc_enc_ok eq_refl E Ec W) as [Hl T].
  split; [exact Hl|]. exists cs. split; [reflexivity|exact T].
Qed.

(* every traf inside an encoded moof is itself a tiled container *)
Lemma amoof_trafs_tiled m kids : enc_list mc_enc m = Ok kids -> amoof_wf m = true ->
  Forall2 (fun c k => match c with
                      | McTraf t => lenN k = atraf_size t /\ exists tk, enc_list tc_enc t = Ok tk /\ tiled_container TY_TRAF k tk
                      | _ => lenN k = mc_size c
                      end) m kids.
Proof.
  intros H. apply enc_list_inv in H. induction H as [|c b rest r Ec _ IH]; intros W; constructor.
  - cbn [amoof_wf forallb] in W. apply andb_true_iff in W. destruct W as [Wc _].
    destruct c as [s|t|o]; [apply (mc_enc_ok _ _ Ec Wc)|apply (atraf_enc_ok t b Ec Wc)|apply (mc_enc_ok _ _ Ec Wc)].
  - apply IH. cbn [amoof_wf forallb] in W. apply andb_true_iff in W. apply W.
Qed.

Lemma md_touch_idem m : md_size_touch (md_size_touch m) = md_size_touch m.
Proof.
  unfold md_size_touch, md_payload, md_data_length. cbn [md_data md_parts md_lazy md_large].
  f_equal. destruct (md_large m); cbn [orb]; [reflexivity|]. apply orb_diag.
Qed.

Lemma md_payload_touch m : md_payload (md_size_touch m) = md_payload m.
Proof. reflexivity. Qed.

Lemma md_size_touch_eq m : md_size (md_size_touch m) = md_size m.
Proof. unfold md_size. rewrite md_touch_idem, md_payload_touch. reflexivity. Qed.

Lemma md_header_touched m : md_header_size (md_size_touch (md_size_touch m)) = md_header_size (md_size_touch m).
Proof. rewrite md_touch_idem. reflexivity. Qed.

Lemma lenN_md_written m : md_lazy m = 0 -> lenN (md_written m) = md_payload m.
Proof.
  intros H. unfold md_payload, md_written, md_data_length. rewrite H. cbn [N.ltb N.compare].
  destruct (md_parts m) as [|p ps]; [reflexivity|]. apply lenN_concat.
Qed.

Lemma md_wf_touch m : md_wf (md_size_touch m) = md_wf m.
Proof. unfold md_wf. rewrite md_size_touch_eq. reflexivity. Qed.

(* MdatBox.Encode leaves the box as Size() does, and sees nothing of the box but that *)
Lemma amd_enc_state m m' r : amd_enc m = (m', r) -> m' = md_size_touch m.
Proof. intros [= <- _]. reflexivity. Qed.

Lemma amd_enc_touch m : amd_enc (md_size_touch m) = amd_enc m.
Proof. unfold amd_enc. rewrite md_touch_idem. reflexivity. Qed.

Lemma amd_enc_ok m m' b : amd_enc m = (m', Ok b) -> md_wf m = true ->
  m' = md_size_touch m /\ lenN b = md_size m /\ box_ok b = true.
Proof.
  unfold amd_enc, md_wf. cbv zeta. intros [= <- H] W. split; [reflexivity|].
  apply andb_true_iff in W. destruct W as [Wl Ws]. apply N.eqb_eq in Wl. apply N.ltb_lt in Ws.
  rewrite md_size_touch_eq in H. change (md_large m || (4294967287 <? md_payload m)) with (md_large (md_size_touch m)) in H.
  pose proof (lenN_md_written (md_size_touch m) Wl) as Hp. rewrite md_payload_touch in Hp.
  assert (Hd : md_size m = md_header_size (md_size_touch m) + md_payload m) by reflexivity. unfold md_header_size in Hd.
  destruct (md_large (md_size_touch m)).
  - apply ok_inj in H. subst b. rewrite <- !app_assoc.
    assert (Hl : lenN (be32 1 ++ TY_MDAT ++ be64 (md_size m) ++ md_written (md_size_touch m)) = md_size m).
    { rewrite !lenN_app, lenN_be32, lenN_be64. change (lenN TY_MDAT) with 4. lia. }
    split; [exact Hl|]. apply box_ok_large; [reflexivity|exact Ws|exact Hl].
  - change (enc_hdr_large TY_MDAT (md_size m) false) with (enc_hdr TY_MDAT (md_size m)) in H.
    destruct (enc_hdr TY_MDAT (md_size m)) as [hd| | |] eqn:E; try discriminate. apply ok_inj in H. subst b.
    apply (hdr_body_ok TY_MDAT _ _ _ eq_refl E). lia.
Qed.

Lemma enc_oboxes_ok l bs : enc_list enc_obox l = Ok bs -> obs_wf l = true ->
  sumN (map (fun b => lenN b) bs) = obs_size l /\ Forall (fun b => box_ok b = true) bs.
Proof.
  intros H W. destruct (enc_list_ok enc_obox ob_size ob_wf enc_obox_ok l bs H W) as [L B].
  split; [unfold obs_size; rewrite L; reflexivity|exact B].
Qed.

Lemma sumN_lens_app (a b : list (list N)) :
  sumN (map (fun x => lenN x) (a ++ b)) = sumN (map (fun x => lenN x) a) + sumN (map (fun x => lenN x) b).
Proof. rewrite map_app, sumN_app. reflexivity. Qed.
