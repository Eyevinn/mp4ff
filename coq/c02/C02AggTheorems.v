(* C02AggTheorems.v — the property theorems of C02 for the aggregates (Fragment, MediaSegment, InitSegment,
   File) over the model of C02AggModel.v.  Each is closed by `exact <lemma>` and followed by Print Assumptions.

   Reading guide.  `afrag_encode fr = (fr', Ok boxes)`: Fragment.Encode / EncodeSW succeeded, left the fragment in
   state fr' and wrote the top-level boxes `boxes` (the output is `concat boxes`).  `all_ok boxes`: the size field
   at the start of every written box equals the length of that box.  `lens boxes` is the sum of the box lengths.
   `*_wf`: every opaque box (anything but tfhd/tfdt/trun/mfhd/mdat/traf/moof) writes Size() bytes and a correct
   header, and no mdat has data the caller writes separately (lazyDataSize = 0). *)
From V.lib Require Import Base.
From V.c05 Require Import C05Model C05FragModel C05CodecModel.
From V.c12 Require C12Model.
From V.c02 Require Import C02AggModel C02AggSizeProofs C02AggOptProofs C02AggFragProofs C02AggFileProofs
  C02AggPureProofs C02AggC12Proofs C02AggC05Proofs C02AggScanProofs C02AggSencModel C02AggSencProofs C02AggExamples
  C02AggCapModel C02AggCapProofs C02AggSencDecProofs C02AggProgProofs C02AggWfModel C02AggWfProofs.

(* ---- bytes written = Size() afterwards = sum of the box lengths; every top-level box header is right;
        Size() beforehand is the same when trun optimisation is off; well-formedness is kept *)
Theorem C02_fragment : forall fr fr' boxes,
  afrag_encode fr = (fr', Ok boxes) -> afrag_wf fr = true ->
  lenN (concat boxes) = afrag_size fr' /\ lens boxes = afrag_size fr' /\ all_ok boxes /\
  (af_opt fr = false -> afrag_size fr = afrag_size fr') /\ afrag_wf fr' = true.
Proof. exact fragment_size. Qed.
Print Assumptions C02_fragment.

(* inside the fragment: the moof written is a container (size field = its length = 8 + sum of its children,
   every child with a correct header) of Size() bytes, and so is every traf in it *)
Theorem C02_fragment_tiled : forall fr fr' boxes,
  afrag_encode fr = (fr', Ok boxes) -> afrag_wf fr = true ->
  exists m2 b2 kids, af_moof fr' = Some m2 /\ In b2 boxes /\ lenN b2 = amoof_size m2 /\
    tiled_container TY_MOOF b2 kids /\
    Forall2 (fun c k => match c with
                        | McTraf t => lenN k = atraf_size t /\
                                      exists tk, enc_list tc_enc t = Ok tk /\ tiled_container TY_TRAF k tk
                        | _ => lenN k = mc_size c
                        end) m2 kids.
Proof. exact fragment_moof_tiled. Qed.
Print Assumptions C02_fragment_tiled.

Theorem C02_segment : forall s s' boxes,
  aseg_encode s = (s', Ok boxes) -> aseg_wf s = true ->
  lenN (concat boxes) = aseg_size s' /\ lens boxes = aseg_size s' /\ all_ok boxes /\
  (sg_opt s = false -> aseg_size s = aseg_size s') /\ aseg_wf s' = true.
Proof. exact segment_size. Qed.
Print Assumptions C02_segment.

Theorem C02_init : forall i boxes, ainit_encode i = Ok boxes -> obs_wf i = true ->
  lenN (concat boxes) = ainit_size i /\ lens boxes = ainit_size i /\ all_ok boxes.
Proof. exact init_size. Qed.
Print Assumptions C02_init.

(* both FragEncModes and progressive files; afile_quiet: neither the file nor a segment asks for optimisation *)
Theorem C02_file : forall f f' boxes,
  afile_encode f = (f', Ok boxes) -> afile_wf f = true ->
  lenN (concat boxes) = afile_size f' /\ lens boxes = afile_size f' /\ all_ok boxes /\
  (afile_quiet f = true -> afile_size f = afile_size f') /\ afile_wf f' = true.
Proof. exact file_size. Qed.
Print Assumptions C02_file.

(* ---- the reader's view: following the size fields from the first byte of the output (`scan`: a size field below 8
        or beyond the end is a failure) recovers exactly the boxes written - no gap, no overlap, nothing left over *)
Theorem C02_scan : forall boxes, all_ok boxes -> scan (length boxes) (concat boxes) = Some boxes.
Proof. exact scan_all_ok. Qed.
Print Assumptions C02_scan.

Theorem C02_fragment_scan : forall fr fr' boxes, afrag_encode fr = (fr', Ok boxes) -> afrag_wf fr = true ->
  scan (length boxes) (concat boxes) = Some boxes.
Proof. exact fragment_scan. Qed.
Print Assumptions C02_fragment_scan.

Theorem C02_segment_scan : forall s s' boxes, aseg_encode s = (s', Ok boxes) -> aseg_wf s = true ->
  scan (length boxes) (concat boxes) = Some boxes.
Proof. exact segment_scan. Qed.
Print Assumptions C02_segment_scan.

Theorem C02_file_scan : forall f f' boxes, afile_encode f = (f', Ok boxes) -> afile_wf f = true ->
  scan (length boxes) (concat boxes) = Some boxes.
Proof. exact file_scan. Qed.
Print Assumptions C02_file_scan.

(* and one level down: behind the 8 header bytes of a written moof / traf, the size fields recover its children *)
Theorem C02_container_scan : forall ty b kids,
  lenN ty = 4 -> tiled_container ty b kids -> scan (length kids) (skipn 8 b) = Some kids.
Proof. exact container_scan. Qed.
Print Assumptions C02_container_scan.

(* ---- the two state changes of Encode reach a fixed point *)
Theorem C02_optimize_idem : forall tf tr tf' tr',
  optimize tf tr = Ok (tf', tr') -> optimize tf' tr' = Ok (tf', tr').
Proof. exact optimize_idem. Qed.
Print Assumptions C02_optimize_idem.

Theorem C02_optimize_moof_idem : forall m m', optimize_moof m = Ok m' -> optimize_moof m' = Ok m'.
Proof. exact optimize_moof_idem. Qed.
Print Assumptions C02_optimize_moof_idem.

Theorem C02_offsets_idem : forall m md m' md', aset_offsets m md = (m', md') -> aset_offsets m' md' = (m', md').
Proof. exact aset_offsets_idem. Qed.
Print Assumptions C02_offsets_idem.

(* ---- Encode does not change any field Size() depends on, other than the listed ones (whatever the outcome):
        data offsets and mdat.LargeSize always; with optimisation also the flags / first-sample-flags of the first
        trun and the flags / defaults of the tfhd of the first traf.  Versions, sample lists, track ids, tfdt, mfhd
        and every opaque box are never touched. *)
Theorem C02_encode_pure : forall fr fr' r, afrag_encode fr = (fr', r) -> frag_fr fr fr'.
Proof. exact afrag_encode_pure. Qed.
Print Assumptions C02_encode_pure.

Theorem C02_encode_pure_noopt : forall fr fr' r, afrag_encode fr = (fr', r) -> af_opt fr = false -> frag_dv fr fr'.
Proof. exact afrag_encode_pure_noopt. Qed.
Print Assumptions C02_encode_pure_noopt.

(* what is kept determines Size(): without optimisation every Size() is unchanged by any operation *)
Theorem C02_pure_size : forall fr fr', frag_dv fr fr' -> afrag_size fr' = afrag_size fr.
Proof. exact frag_dv_size. Qed.
Print Assumptions C02_pure_size.

Theorem C02_step_pure : forall fr o fr' out, afrag_step fr o = (fr', out) -> frag_fr fr fr'.
Proof. exact afrag_step_pure. Qed.
Print Assumptions C02_step_pure.

(* the same one and two levels up: a MediaSegment.Encode additionally overwrites the fragments' EncOptimize, a
   File.Encode the segments'; in box-tree mode / progressive files only mdat.LargeSize changes *)
Theorem C02_encode_pure_segment : forall s s' r, aseg_encode s = (s', r) -> seg_fr s s'.
Proof. exact aseg_encode_pure. Qed.
Print Assumptions C02_encode_pure_segment.

Theorem C02_encode_pure_file : forall f f' r, afile_encode f = (f', r) -> file_fr f f'.
Proof. exact afile_encode_pure. Qed.
Print Assumptions C02_encode_pure_file.

(* ---- encoding twice, with Size / Info in between: after a successful Encode or EncodeSW the structure is
        `settled`: Encode and EncodeSW write the same bytes again, Size() is the number of bytes written, and no
        operation changes the structure any more *)
Theorem C02_encode_twice_fragment : forall fr fr' boxes o,
  (o = OpEncode \/ o = OpEncodeSW) -> afrag_step fr o = (fr', OutBytes boxes) -> afrag_wf fr = true ->
  settled afrag_step fr' boxes (lenN (concat boxes)).
Proof. exact fragment_settles. Qed.
Print Assumptions C02_encode_twice_fragment.

Theorem C02_encode_twice_segment : forall s s' boxes o,
  (o = OpEncode \/ o = OpEncodeSW) -> aseg_step s o = (s', OutBytes boxes) -> aseg_wf s = true ->
  settled aseg_step s' boxes (lenN (concat boxes)).
Proof. exact segment_settles. Qed.
Print Assumptions C02_encode_twice_segment.

Theorem C02_encode_twice_init : forall i i' boxes o,
  (o = OpEncode \/ o = OpEncodeSW) -> ainit_step i o = (i', OutBytes boxes) -> obs_wf i = true ->
  i' = i /\ settled ainit_step i boxes (lenN (concat boxes)).
Proof. exact init_settles. Qed.
Print Assumptions C02_encode_twice_init.

Theorem C02_encode_twice_file : forall f f' boxes o,
  (o = OpEncode \/ o = OpEncodeSW) -> afile_step f o = (f', OutBytes boxes) -> afile_wf f = true ->
  settled afile_step f' boxes (lenN (concat boxes)).
Proof. exact file_settles. Qed.
Print Assumptions C02_encode_twice_file.

(* ---- arbitrary histories of [Size | Info | Encode | EncodeSW]: whatever came before (ops1, no panic), once an
        Encode / EncodeSW succeeds at a well-formed state the rest of the history (ops2, any length, any
        interleaving) is determined: the same bytes, Size() = their number, the state frozen *)
Theorem C02_history_fragment : forall fr ops1 o ops2 fr1 fr2 boxes,
  snd (run_hist afrag_step fr ops1) = fr1 -> ~ In OutPanic (fst (run_hist afrag_step fr ops1)) ->
  (o = OpEncode \/ o = OpEncodeSW) -> afrag_step fr1 o = (fr2, OutBytes boxes) -> afrag_wf fr1 = true ->
  run_hist afrag_step fr (ops1 ++ o :: ops2) =
    (fst (run_hist afrag_step fr ops1) ++ OutBytes boxes :: map (expected boxes (lenN (concat boxes))) ops2, fr2).
Proof. exact (history_after_encode afrag_step afrag_wf fragment_settles). Qed.
Print Assumptions C02_history_fragment.

Theorem C02_history_segment : forall s ops1 o ops2 s1 s2 boxes,
  snd (run_hist aseg_step s ops1) = s1 -> ~ In OutPanic (fst (run_hist aseg_step s ops1)) ->
  (o = OpEncode \/ o = OpEncodeSW) -> aseg_step s1 o = (s2, OutBytes boxes) -> aseg_wf s1 = true ->
  run_hist aseg_step s (ops1 ++ o :: ops2) =
    (fst (run_hist aseg_step s ops1) ++ OutBytes boxes :: map (expected boxes (lenN (concat boxes))) ops2, s2).
Proof. exact (history_after_encode aseg_step aseg_wf segment_settles). Qed.
Print Assumptions C02_history_segment.

Theorem C02_history_file : forall f ops1 o ops2 f1 f2 boxes,
  snd (run_hist afile_step f ops1) = f1 -> ~ In OutPanic (fst (run_hist afile_step f ops1)) ->
  (o = OpEncode \/ o = OpEncodeSW) -> afile_step f1 o = (f2, OutBytes boxes) -> afile_wf f1 = true ->
  run_hist afile_step f (ops1 ++ o :: ops2) =
    (fst (run_hist afile_step f ops1) ++ OutBytes boxes :: map (expected boxes (lenN (concat boxes))) ops2, f2).
Proof. exact (history_after_encode afile_step afile_wf file_settles). Qed.
Print Assumptions C02_history_file.

(* well-formedness before the history is enough: every operation keeps it *)
Theorem C02_history_wf : forall ops fr, afrag_wf fr = true -> afrag_wf (snd (run_hist afrag_step fr ops)) = true.
Proof. exact run_hist_frag_wf. Qed.
Print Assumptions C02_history_wf.

Theorem C02_history_wf_segment : forall ops s, aseg_wf (snd (run_hist aseg_step s ops)) = aseg_wf s.
Proof. exact (run_hist_wf aseg_step aseg_wf aseg_step_wf). Qed.
Print Assumptions C02_history_wf_segment.

Theorem C02_history_wf_file : forall ops f, afile_wf (snd (run_hist afile_step f ops)) = afile_wf f.
Proof. exact (run_hist_wf afile_step afile_wf afile_step_wf). Qed.
Print Assumptions C02_history_wf_file.

(* ---- the fragments of the C05 model (children tfhd, tfdt, truns, no other boxes) sit inside this model with
        the same Size() and the same truns *)
Theorem C02_c05_moof_size : forall seq fr,
  fr_moofx fr = 0 -> Forall (fun t => tf_extra t = 0 /\ td_version (tf_dt t) <= 1) (fr_trafs fr) ->
  amoof_size (of_c05_moof seq fr) = moof_size fr.
Proof. exact of_c05_moof_size. Qed.
Print Assumptions C02_c05_moof_size.

(* SetTrunDataOffsets: with pairwise different write order numbers (what the Add* operations make) this model's
   position-keyed, stably sorted table gives exactly the data offsets of C05FragModel.set_offsets: C05's theorems
   about the offsets (C05_offsets, C05_roundtrip ...) speak about the fragments this model encodes *)
Theorem C02_c05_set_offsets : forall seq fr,
  fr_moofx fr = 0 -> Forall (fun t => tf_extra t = 0 /\ td_version (tf_dt t) <= 1) (fr_trafs fr) ->
  NoDup (map tr_won (all_truns (fr_trafs fr))) ->
  aset_offsets (of_c05_moof seq fr) (fr_mdat fr) = (of_c05_moof seq (set_offsets fr), fr_mdat (set_offsets fr)).
Proof. exact aset_offsets_c05. Qed.
Print Assumptions C02_c05_set_offsets.

(* ---- and C12's model of File.Encode in segment mode (which boxes, in which order) lists, for the structure
        reached after Encode, exactly the boxes written here: same number, same order, Size() = bytes written *)
Theorem C02_c12_order : forall f f' boxes,
  afile_seg_mode f = true -> afile_encode f = (f', Ok boxes) -> afile_wf f = true ->
  exists tbs, C12Model.encode_file (abs_file f') = Ok tbs /\ sizes tbs = blens boxes.
Proof. exact file_c12. Qed.
Print Assumptions C02_c12_order.

(* ---- SencBox, the box whose Encode / EncodeSW / Info set a flag that Size() depends on (opaque in the model above).
        The flag setting is idempotent; every box built by CreateSencBox + AddSample (any history, refused samples
        included, IVs below 256 bytes, fewer than 2^32 samples) is built_ok, hence senc_ok; a senc_ok box is left
        alone by Info, Encode and EncodeSW, which both write the same Size() bytes with a correct size field (or both
        fail because Size() >= 2^32): it is a well-formed, stateless opaque box of the aggregate theorems. *)
Theorem C02_senc_flag_idem : forall s, senc_setflag (senc_setflag s) = senc_setflag s.
Proof. exact senc_setflag_idem. Qed.
Print Assumptions C02_senc_flag_idem.

Theorem C02_senc_built : forall l s,
  built_ok s = true -> Forall (fun p => lenN (fst p) < 256) l -> sn_count s + lenN l < 4294967296 ->
  built_ok (senc_adds senc_add s l) = true.
Proof. exact senc_adds_built. Qed.
Print Assumptions C02_senc_built.

Theorem C02_senc_built_ok : forall s, built_ok s = true -> senc_ok s = true.
Proof. exact built_ok_senc_ok. Qed.
Print Assumptions C02_senc_built_ok.

Theorem C02_senc : forall s, senc_ok s = true ->
  exists n, senc_size s = Ok n /\
    ((TWO32 <=? n) = true /\ snd (senc_encode_w s) = Err /\ snd (senc_encode_sw s) = Err
     \/ exists b, senc_encode_w s = (s, Ok b) /\ senc_encode_sw s = (s, Ok b) /\ lenN b = n /\ box_ok b = true) /\
    senc_info s = Ok s.
Proof. exact senc_ok_encode. Qed.
Print Assumptions C02_senc.

Theorem C02_senc_obox : forall s, senc_ok s = true -> ob_err (senc_obox s) = false -> ob_wf (senc_obox s) = true.
Proof. exact senc_ok_obox. Qed.
Print Assumptions C02_senc_obox.

(* the AddSample text before ecf1460 / 0b086ee: Size() panics, resp. Size() = 32 and Encode panics (C02-F12, C02-F13) *)
Theorem C02_senc_pinned_size_refuted : exists l, senc_size (senc_adds senc_add_pinned senc_create l) = Panic.
Proof. exact senc_pinned_size_refuted. Qed.
Print Assumptions C02_senc_pinned_size_refuted.

Theorem C02_senc_pinned_encode_refuted : exists l n,
  senc_size (senc_adds senc_add_pinned senc_create l) = Ok n /\
  snd (senc_encode_w (senc_adds senc_add_pinned senc_create l)) = Panic.
Proof. exact senc_pinned_encode_refuted. Qed.
Print Assumptions C02_senc_pinned_encode_refuted.

(* without the guard senc_ok (flag not consistent with the sub-samples: only by writing the fields directly) Encode
   changes Size(): 16 before, 24 after *)
Theorem C02_senc_flag_refuted : exists s n n',
  senc_size s = Ok n /\ senc_size (fst (senc_encode_w s)) = Ok n' /\ n <> n'.
Proof. exact senc_flag_refuted. Qed.
Print Assumptions C02_senc_flag_refuted.

(* ---- EncodeSW into a bits.FixedSliceWriter of a given capacity (C02AggCapModel: the remaining room is threaded
        through the boxes; a box that does not fit is an error).  cap_independent: a success with ANY capacity is the
        success of Encode (same state, same boxes), wrote exactly Size() bytes (Size() taken afterwards) and left
        capacity - Size() room; and EVERY capacity >= Size(), the exact one included, gives the same state and boxes.
        False for an encoder that writes more than Size() (C02_encode_sw_capacity_refuted). *)
Theorem C02_encode_sw_capacity_independent : forall fr, afrag_wf fr = true ->
  forall room fr' boxes rest, afrag_encode_sw room fr = (fr', Ok (boxes, rest)) ->
    afrag_encode fr = (fr', Ok boxes) /\ lens boxes = afrag_size fr' /\ room = rest + afrag_size fr' /\
    forall room2, afrag_size fr' <= room2 -> afrag_encode_sw room2 fr = (fr', Ok (boxes, room2 - afrag_size fr')).
Proof. exact fragment_capacity. Qed.
Print Assumptions C02_encode_sw_capacity_independent.

Theorem C02_encode_sw_capacity_segment : forall s, aseg_wf s = true ->
  cap_independent aseg_size aseg_encode aseg_encode_sw s.
Proof. exact segment_capacity. Qed.
Print Assumptions C02_encode_sw_capacity_segment.

Theorem C02_encode_sw_capacity_init : forall i, obs_wf i = true ->
  cap_independent ainit_size (fun i => (i, ainit_encode i)) (fun room i => (i, ainit_encode_sw room i)) i.
Proof. exact init_capacity. Qed.
Print Assumptions C02_encode_sw_capacity_init.

Theorem C02_encode_sw_capacity_file : forall f, afile_wf f = true ->
  cap_independent afile_size afile_encode afile_encode_sw f.
Proof. exact file_capacity. Qed.
Print Assumptions C02_encode_sw_capacity_file.

(* and when Encode succeeds, EncodeSW into Size() bytes or more succeeds with the same outcome *)
Theorem C02_encode_sw_capacity_complete : forall f f' boxes room,
  afile_encode f = (f', Ok boxes) -> afile_wf f = true -> afile_size f' <= room ->
  afile_encode_sw room f = (f', Ok (boxes, room - afile_size f')).
Proof. exact file_capacity_complete. Qed.
Print Assumptions C02_encode_sw_capacity_complete.

Theorem C02_encode_sw_capacity_refuted :
  ob_wf ob_over = false /\ ainit_size [ob_over] = 12 /\
  ainit_encode_sw 12 [ob_over] = Err /\
  exists boxes rest, ainit_encode_sw (12 + 64) [ob_over] = Ok (boxes, rest) /\ lens boxes = 16 /\ rest = 60.
Proof. exact capacity_refuted. Qed.
Print Assumptions C02_encode_sw_capacity_refuted.

(* ---- SencBox as the decoders leave it.  `decoded hsize hlen payload s`: DecodeSenc / DecodeSencSR accept the box
        (header size field hsize, header length hlen, payload) and leave s.  Such a box - parsed or not, also with
        sample_count 0 and bytes after it since 954ff09 - writes exactly Size() bytes with a correct size field on
        both paths and is not changed by Encode / EncodeSW / Info. *)
Theorem C02_senc_decoded : forall hsize hlen payload s, decoded hsize hlen payload s ->
  senc_size s = Ok (sn_read s) /\
  ((TWO32 <=? sn_read s) = true /\ snd (senc_encode_w s) = Err /\ snd (senc_encode_sw s) = Err
   \/ fst (senc_encode_w s) = s /\ fst (senc_encode_sw s) = s /\
      senc_written (snd (senc_encode_w s)) (sn_read s) /\ snd (senc_encode_sw s) = snd (senc_encode_w s)) /\
  senc_info s = Ok s.
Proof. exact senc_decoded_exact. Qed.
Print Assumptions C02_senc_decoded.

(* findings C02-K1 / K2 / K4, C01-K71 / K78 (the encoder before 954ff09): a decoded box with sample_count 0 and bytes
   after it says Size() 20 and writes 16 bytes *)
Theorem C02_senc_zero_pinned_refuted : exists hsize hlen payload s b,
  decoded hsize hlen payload s /\ senc_size s = Ok 20 /\
  (do p <- senc_all_gen false s; Ok (snd p)) = Ok b /\ lenN b = 16.
Proof. exact senc_zero_pinned_refuted. Qed.
Print Assumptions C02_senc_zero_pinned_refuted.

(* after the second decoding phase (ParseReadBox with any perSampleIVSize byte, success): Size() is still the
   remembered size, the encoders write calcSize() bytes - never more - under a size field that says Size(); the two
   agree EXACTLY when senc_parse_exact: the sub-sample flag is set (that path refuses left-over bytes) or the IVs
   fill the data *)
Theorem C02_senc_parsed : forall hsize hlen payload s piv0 s',
  decoded hsize hlen payload s -> piv0 < 256 -> senc_parse s piv0 = (s', Ok tt) -> 16 + lenN (sn_raw s') < TWO32 ->
  exists b, senc_encode_w s' = (s', Ok b) /\ senc_encode_sw s' = (s', Ok b) /\
    senc_size s' = Ok (16 + lenN (sn_raw s')) /\ firstn 4 b = be32 (16 + lenN (sn_raw s')) /\
    lenN b <= 16 + lenN (sn_raw s') /\
    (lenN b = 16 + lenN (sn_raw s') <-> senc_parse_exact s' = true).
Proof. exact senc_parsed_exact. Qed.
Print Assumptions C02_senc_parsed.

(* since repo commit 4cf4f8b (ParseReadBox refuses left-over bytes also without sub-samples) the guard always holds:
   every box the two decoding phases accept writes exactly Size() bytes under a size field that says so *)
Theorem C02_senc_parsed_exact : forall hsize hlen payload s piv0 s',
  decoded hsize hlen payload s -> piv0 < 256 -> senc_parse s piv0 = (s', Ok tt) -> 16 + lenN (sn_raw s') < TWO32 ->
  senc_parse_exact s' = true /\
  exists b, senc_encode_w s' = (s', Ok b) /\ senc_encode_sw s' = (s', Ok b) /\
    senc_size s' = Ok (lenN b) /\ firstn 4 b = be32 (lenN b).
Proof. exact senc_parsed_always_exact. Qed.
Print Assumptions C02_senc_parsed_exact.

(* finding C02-K5 (the text before 4cf4f8b, senc_parse_pinned): Size() 33 and 32 bytes written; now refused *)
Theorem C02_senc_parse_trailing_refuted : exists hsize hlen payload s s' b,
  decoded hsize hlen payload s /\ senc_parse_pinned s 0 = (s', Ok tt) /\ senc_parse_exact s' = false /\
  senc_size s' = Ok 33 /\ senc_encode_w s' = (s', Ok b) /\ lenN b = 32 /\ snd (senc_parse s 0) = Err.
Proof. exact senc_parse_trailing_refuted. Qed.
Print Assumptions C02_senc_parse_trailing_refuted.

(* ---- progressive (non-fragmented) files and box-tree mode: one box per child, in order; the state afterwards
        differs in mdat.LargeSize only (moov and its stco / co64 are written as they are); every box has the length
        Size() reports afterwards; the file position at which each mdat payload begins, computed from Size() /
        HeaderSize(), is where it begins in the output; a file whose mdat boxes are settled is not changed at all *)
Theorem C02_file_progressive : forall f f' boxes,
  afile_seg_mode f = false -> afile_encode f = (f', Ok boxes) -> afile_wf f = true ->
  f' = afile_with f (fl_segs f) (map fc_touch (fl_children f)) /\
  Forall2 child_box (fl_children f') boxes /\
  map (fun b => lenN b) boxes = map fc_size (fl_children f') /\
  out_payload_starts 0 (fl_children f') boxes = payload_starts 0 (fl_children f') /\
  (Forall (fun c => fc_touch c = c) (fl_children f) -> f' = f /\ payload_starts 0 (fl_children f') = payload_starts 0 (fl_children f)).
Proof. exact file_progressive. Qed.
Print Assumptions C02_file_progressive.

(* ---- the hypotheses are satisfiable by non-trivial values *)
(* three samples, 8-byte IVs, sub-samples on the second one only: built_ok, 16 + 3*8 + 3*2 + 6 = 52 bytes *)
Example C02_ex_senc :
  let s := senc_adds senc_add senc_create
             [([1; 2; 3; 4; 5; 6; 7; 8], []); ([1; 2; 3; 4; 5; 6; 7; 9], [(10, 1000)]); ([1; 2; 3; 4; 5; 6; 7; 10], [])] in
  built_ok s = true /\ senc_size s = Ok 52 /\ exists b, senc_encode_w s = (s, Ok b) /\ lenN b = 52.
Proof. cbv zeta. split; [reflexivity|]. split; [reflexivity|]. eexists. split; [vm_compute; reflexivity|reflexivity]. Qed.

(* a fragment with an emsg-like box, a traf with an extra box, two samples: optimisation shrinks it from 147 to
   135 bytes at encode time; the bytes written are the 135 *)
Example C02_ex_fragment :
  afrag_wf (ex_frag true) = true /\ afrag_size (ex_frag true) = 147 /\
  exists fr' boxes, afrag_encode (ex_frag true) = (fr', Ok boxes) /\ afrag_size fr' = 135 /\ lens boxes = 135.
Proof. split; [reflexivity|]. split; [reflexivity|]. eexists; eexists. split; [vm_compute; reflexivity|]. split; reflexivity. Qed.

Example C02_ex_segment :
  aseg_wf ex_seg = true /\ aseg_size ex_seg = 320 /\
  exists s' boxes, aseg_encode ex_seg = (s', Ok boxes) /\ aseg_size s' = 296 /\ lens boxes = 296.
Proof. split; [reflexivity|]. split; [reflexivity|]. eexists; eexists. split; [vm_compute; reflexivity|]. split; reflexivity. Qed.

Example C02_ex_file :
  afile_wf ex_file = true /\ exists f' boxes, afile_encode ex_file = (f', Ok boxes) /\ afile_size f' = 313 /\ lens boxes = 313.
Proof. split; [reflexivity|]. eexists; eexists. split; [vm_compute; reflexivity|]. split; reflexivity. Qed.

Example C02_ex_file_tree :
  afile_wf ex_file_tree = true /\ afile_quiet ex_file_tree = true /\
  exists f' boxes, afile_encode ex_file_tree = (f', Ok boxes) /\ afile_size f' = afile_size ex_file_tree.
Proof. split; [reflexivity|]. split; [reflexivity|]. eexists; eexists. split; [vm_compute; reflexivity|]. reflexivity. Qed.

(* a history: Size, Encode (succeeds), then anything *)
Example C02_ex_history :
  exists b, fst (run_hist afrag_step (ex_frag true) [OpSize; OpEncode; OpSize; OpInfo; OpEncodeSW; OpEncode; OpSize]) =
            [OutSize 147; OutBytes b; OutSize 135; OutInfo; OutBytes b; OutBytes b; OutSize 135].
Proof. eexists. vm_compute. reflexivity. Qed.

(* a decoded senc with two samples, 8-byte IVs and sub-samples, parsed without knowing the IV size *)
Example C02_ex_senc_parsed : exists s s',
  decoded 48 8 ([0; 0; 0; 2; 0; 0; 0; 2] ++ [1;2;3;4;5;6;7;8; 0;1; 0;5; 0;0;0;9] ++ [1;2;3;4;5;6;7;9; 0;1; 0;7; 0;0;1;0]) s /\
  senc_parse s 0 = (s', Ok tt) /\ senc_parse_exact s' = true /\ sn_ivsize s' = 8 /\ senc_size s' = Ok 48 /\
  exists b, senc_encode_w s' = (s', Ok b) /\ lenN b = 48.
Proof. exact senc_parsed_example. Qed.

(* ftyp, moov, mdat: the payload begins at 8 + 16 + 8 *)
Example C02_ex_progressive : afile_wf ex_prog = true /\ afile_seg_mode ex_prog = false /\
  exists boxes, afile_encode ex_prog = (ex_prog, Ok boxes) /\ payload_starts 0 (fl_children ex_prog) = [32] /\
    out_payload_starts 0 (fl_children ex_prog) boxes = [32].
Proof. exact ex_prog_ok. Qed.

(* a fragment encoded into a writer of exactly Size() bytes, and of 64 more *)
Example C02_ex_capacity :
  exists fr' boxes, afrag_encode_sw 135 (ex_frag true) = (fr', Ok (boxes, 0)) /\
                    afrag_encode_sw (135 + 64) (ex_frag true) = (fr', Ok (boxes, 64)).
Proof. eexists; eexists. split; vm_compute; reflexivity. Qed.

(* ---- the hypotheses of the theorems above are evaluated on the real structures of every run: the predicates the extracted
        model computes on each correspondence case (C02AggWfModel.v, a file without proofs; the counts are in the evidence:
        coverage.aggregate_correspondence.theorem_hypotheses_evaluated) ARE afrag_wf / aseg_wf / obs_wf / afile_wf / senc_ok *)
Theorem C02_wf_evaluated :
  (forall fr, x_afrag_wf fr = afrag_wf fr) /\ (forall s, x_aseg_wf s = aseg_wf s) /\ (forall i, x_obs_wf i = obs_wf i) /\
  (forall f, x_afile_wf f = afile_wf f) /\ (forall s, x_senc_ok s = senc_ok s).
Proof. exact x_wf_eq. Qed.
Print Assumptions C02_wf_evaluated.
