(* C02AggPureProofs.v — what Size / Info / Encode / EncodeSW may change in a fragment, whatever their outcome:
   data offsets and mdat.LargeSize; with trun optimisation also the flags and first-sample-flags of truns and the
   flags and defaults of tfhds.  Nothing else: versions, sample lists, write order, track ids, base data offsets,
   tfdt, mfhd, the mdat payload and every opaque box stay as they are (`frag_fr`).  Without optimisation only data
   offsets and LargeSize change (`frag_dv`), hence no Size() changes.  The same for segments and files; and what
   stays within the frame stays well-formed. *)
From V.lib Require Import Base.
From V.c05 Require Import C05Model C05FragModel C05CodecModel C05OptProofs.
From V.c02 Require Import C02AggModel C02AggSizeProofs C02AggOptProofs C02AggFragProofs C02AggFileProofs.

Definition tfhd_fr (h h' : tfhd) : Prop :=
  tf_track h' = tf_track h /\ tf_bdo h' = tf_bdo h /\ tf_sdi h' = tf_sdi h /\
  tf_has_bdo h' = tf_has_bdo h /\ tf_has_sdi h' = tf_has_sdi h.
Definition trun_fr (r r' : trun) : Prop :=
  tr_version r' = tr_version r /\ tr_samples r' = tr_samples r /\ tr_won r' = tr_won r /\ has_doff r' = has_doff r.
Definition tc_fr (c c' : tchild) : Prop :=
  match c, c' with
  | TcTfhd h, TcTfhd h' => tfhd_fr h h'
  | TcTrun r, TcTrun r' => trun_fr r r'
  | _, _ => c' = c
  end.
Definition traf_fr (t t' : atraf) : Prop := Forall2 tc_fr t t'.
Definition mc_fr (c c' : mchild) : Prop :=
  match c, c' with McTraf t, McTraf t' => traf_fr t t' | _, _ => c' = c end.
Definition moof_fr (m m' : amoof) : Prop := Forall2 mc_fr m m'.
Definition md_fr (m m' : mdat) : Prop := m' = m \/ m' = md_size_touch m.
Definition orel {A} (R : A -> A -> Prop) (o o' : option A) : Prop :=
  match o, o' with Some a, Some b => R a b | None, None => True | _, _ => False end.

Definition frag_rel (R : amoof -> amoof -> Prop) (fr fr' : afrag) : Prop :=
  af_pre fr' = af_pre fr /\ af_mid fr' = af_mid fr /\ af_post fr' = af_post fr /\ af_opt fr' = af_opt fr /\
  orel R (af_moof fr) (af_moof fr') /\ orel md_fr (af_mdat fr) (af_mdat fr').
Definition frag_fr := frag_rel moof_fr.
Definition frag_dv := frag_rel moof_dv.

(* tc_fr is tc_rel tfhd_fr trun_fr and mc_fr is mc_rel traf_fr (C02AggOptProofs), by unfolding *)
Lemma tfhd_fr_refl h : tfhd_fr h h. Proof. repeat split. Qed.
Lemma trun_fr_refl r : trun_fr r r. Proof. repeat split. Qed.
Lemma tfhd_fr_trans a b c : tfhd_fr a b -> tfhd_fr b c -> tfhd_fr a c.
Proof. intros (A1 & A2 & A3 & A4 & A5) (B1 & B2 & B3 & B4 & B5). repeat split; congruence. Qed.
Lemma trun_fr_trans a b c : trun_fr a b -> trun_fr b c -> trun_fr a c.
Proof. intros (A1 & A2 & A3 & A4) (B1 & B2 & B3 & B4). repeat split; congruence. Qed.

Lemma tc_fr_refl c : tc_fr c c.
Proof. exact (tc_rel_refl tfhd_fr trun_fr tfhd_fr_refl trun_fr_refl c). Qed.
Lemma tc_fr_trans a b c : tc_fr a b -> tc_fr b c -> tc_fr a c.
Proof. exact (tc_rel_trans tfhd_fr trun_fr tfhd_fr_trans trun_fr_trans a b c). Qed.
Lemma traf_fr_refl t : traf_fr t t. Proof. apply Forall2_refl, tc_fr_refl. Qed.
Lemma traf_fr_trans a b c : traf_fr a b -> traf_fr b c -> traf_fr a c.
Proof. apply Forall2_trans, tc_fr_trans. Qed.
Lemma mc_fr_refl c : mc_fr c c.
Proof. exact (mc_rel_refl traf_fr traf_fr_refl c). Qed.
Lemma mc_fr_trans a b c : mc_fr a b -> mc_fr b c -> mc_fr a c.
Proof. exact (mc_rel_trans traf_fr traf_fr_trans a b c). Qed.
Lemma moof_fr_refl m : moof_fr m m. Proof. apply Forall2_refl, mc_fr_refl. Qed.
Lemma moof_fr_trans a b c : moof_fr a b -> moof_fr b c -> moof_fr a c.
Proof. apply Forall2_trans, mc_fr_trans. Qed.

(* a change of data offsets is within the frame *)
Lemma dv_fr r r' : dv r r' -> trun_fr r r'.
Proof. intros ->. repeat split. Qed.
Lemma traf_dv_fr t t' : traf_dv t t' -> traf_fr t t'.
Proof.
  apply Forall2_impl. intros c c' H. destruct (tc_dv_inv c c' H) as [->|(r & r' & -> & -> & D)]; [apply tc_fr_refl|exact (dv_fr r r' D)].
Qed.
Lemma moof_dv_fr m m' : moof_dv m m' -> moof_fr m m'.
Proof.
  apply Forall2_impl. intros c c' H. destruct (mc_dv_inv c c' H) as [->|(t & t' & -> & -> & D)]; [apply mc_fr_refl|exact (traf_dv_fr t t' D)].
Qed.

Lemma dv_trans a b c : dv a b -> dv b c -> dv a c.
Proof. unfold dv. intros H1 H2. rewrite H2, H1. reflexivity. Qed.
Lemma traf_dv_trans a b c : traf_dv a b -> traf_dv b c -> traf_dv a c.
Proof.
  apply Forall2_trans. intros x y z H1 H2. destruct (tc_dv_inv x y H1) as [->|(r & r' & -> & -> & D)]; [exact H2|].
  destruct (tc_dv_inv _ z H2) as [->|(q & q' & E & -> & D')]; [exact D|]. injection E as <-. exact (dv_trans r r' q' D D').
Qed.
Lemma moof_dv_trans a b c : moof_dv a b -> moof_dv b c -> moof_dv a c.
Proof. apply Forall2_trans. exact (mc_rel_trans traf_dv traf_dv_trans). Qed.

Lemma tf_set_fr h : forall v, tfhd_fr h (tf_set_ddur h v) /\ tfhd_fr h (tf_set_dsize h v) /\ tfhd_fr h (tf_set_dflags h v).
Proof. intros v. repeat split; bits; reflexivity. Qed.

Lemma opt_dur_tf tf tr : tfhd_fr tf (fst (opt_dur tf tr)).
Proof.
  rewrite opt_dur_alt. destruct (tr_samples tr); [apply tfhd_fr_refl|]. destruct (has_dur tr && _); [|apply tfhd_fr_refl].
  apply tf_set_fr.
Qed.
Lemma opt_size_tf tf tr : tfhd_fr tf (fst (C05Model.opt_size tf tr)).
Proof.
  rewrite opt_size_alt. destruct (tr_samples tr); [apply tfhd_fr_refl|]. destruct (has_size tr && _); [|apply tfhd_fr_refl].
  apply tf_set_fr.
Qed.
Lemma opt_flags_tf tf tr : tfhd_fr tf (fst (opt_flags_gen true tf tr)).
Proof.
  unfold opt_flags_gen. destruct (tr_samples tr) as [|s0 [|s1 l]]; try apply tfhd_fr_refl.
  destruct (has_sflags tr && _); [|apply tfhd_fr_refl]. apply tf_set_fr.
Qed.
Lemma opt_cto_tf tf tr : fst (opt_cto tf tr) = tf.
Proof. unfold opt_cto. destruct (_ && _ && _); reflexivity. Qed.

Lemma step_trun_fr bit r r' : step_ok bit r r' -> trun_fr r r'.
Proof. intros []. repeat split; assumption. Qed.

Lemma optimize_fr tf tr tf' tr' : optimize tf tr = Ok (tf', tr') -> tfhd_fr tf tf' /\ trun_fr tr tr'.
Proof.
  apply (optimize_chain (fun p q => tfhd_fr (fst p) (fst q) /\ trun_fr (snd p) (snd q))).
  - intros p. split; [apply tfhd_fr_refl|apply trun_fr_refl].
  - intros p q r [A1 A2] [B1 B2]. split; [exact (tfhd_fr_trans _ _ _ A1 B1)|exact (trun_fr_trans _ _ _ A2 B2)].
  - intros. split; [apply opt_dur_tf|eapply step_trun_fr, opt_dur_step].
  - intros. split; [apply opt_size_tf|eapply step_trun_fr, opt_size_step].
  - intros. split; [apply opt_flags_tf|eapply step_trun_fr, opt_flags_step].
  - intros. split; [rewrite opt_cto_tf; apply tfhd_fr_refl|eapply step_trun_fr, opt_cto_step].
Qed.

Lemma optimize_traf_fr t t' : optimize_traf t = Ok t' -> traf_fr t t'.
Proof.
  exact (optimize_traf_rel tfhd_fr trun_fr tfhd_fr_refl trun_fr_refl tfhd_fr_trans trun_fr_trans optimize_fr t t').
Qed.

Lemma optimize_moof_fr m : forall m', optimize_moof m = Ok m' -> moof_fr m m'.
Proof. exact (optimize_moof_rel traf_fr traf_fr_refl optimize_traf_fr m). Qed.

Definition enc_states (fr fr' : afrag) : Prop :=
  fr' = fr \/
  exists m m1, af_moof fr = Some m /\ (if af_opt fr then optimize_moof m else Ok m) = Ok m1 /\
    ((af_mdat fr = None /\ fr' = af_set fr (Some m1) None) \/
     exists md m2 md2, af_mdat fr = Some md /\ aset_offsets m1 md = (m2, md2) /\
       (fr' = af_set fr (Some m2) (Some md2) \/ fr' = af_set fr (Some m2) (Some (md_size_touch md2)))).

Lemma enc_states_intro fr m m1 md m2 md2 fr' :
  af_moof fr = Some m -> (if af_opt fr then optimize_moof m else Ok m) = Ok m1 -> af_mdat fr = Some md ->
  aset_offsets m1 md = (m2, md2) ->
  (fr' = af_set fr (Some m2) (Some md2) \/ fr' = af_set fr (Some m2) (Some (md_size_touch md2))) -> enc_states fr fr'.
Proof.
  intros Em Eo Ed Es H. right. exists m, m1. split; [exact Em|]. split; [exact Eo|]. right. exists md, m2, md2.
  split; [exact Ed|]. split; [exact Es|exact H].
Qed.

Lemma afrag_encode_states fr fr' r : afrag_encode fr = (fr', r) -> enc_states fr fr'.
Proof.
  unfold afrag_encode. destruct (af_moof fr) as [m|] eqn:Em; [|intros [= <- _]; left; reflexivity].
  destruct (if af_opt fr then optimize_moof m else Ok m) as [m1| | |] eqn:Eo; try (intros [= <- _]; left; reflexivity).
  destruct (af_mdat fr) as [md|] eqn:Ed.
  2:{ intros [= <- _]. right. exists m, m1. split; [exact Em|]. split; [exact Eo|]. left. split; [exact Ed|reflexivity]. }
  destruct (aset_offsets m1 md) as [m2 md2] eqn:Es.
  pose proof (enc_states_intro fr m m1 md m2 md2) as A.
  destruct (enc_list enc_obox (af_pre fr)); try (intros [= <- _]; apply A; auto).
  destruct (amoof_enc m2); try (intros [= <- _]; apply A; auto).
  destruct (enc_list enc_obox (af_mid fr)); try (intros [= <- _]; apply A; auto).
  destruct (amd_enc md2) as [md3 r4] eqn:E4. pose proof (amd_enc_state _ _ _ E4) as ->.
  destruct r4; try (intros [= <- _]; apply A; auto).
  destruct (enc_list enc_obox (af_post fr)); intros [= <- _]; apply A; auto.
Qed.

Lemma md_fr_after md md2 : md_fr md md2 -> md_fr md (md_size_touch md2).
Proof. intros [->| ->]; right; [reflexivity|apply md_touch_idem]. Qed.

Lemma frag_rel_refl (R : amoof -> amoof -> Prop) fr : (forall m, R m m) -> frag_rel R fr fr.
Proof.
  intros Rrefl. unfold frag_rel. repeat split; [destruct (af_moof fr); cbn [orel]; auto|destruct (af_mdat fr); cbn [orel]; [left; reflexivity|exact I]].
Qed.

Lemma afrag_encode_rel (R : amoof -> amoof -> Prop) fr fr' r :
  (forall m, R m m) -> (forall a b c, R a b -> R b c -> R a c) -> (forall a b, moof_dv a b -> R a b) ->
  (forall m m1, af_moof fr = Some m -> (if af_opt fr then optimize_moof m else Ok m) = Ok m1 -> R m m1) ->
  afrag_encode fr = (fr', r) -> frag_rel R fr fr'.
Proof.
  intros Rrefl Rtrans Rdv Ropt H.
  destruct (afrag_encode_states fr fr' r H) as [->|(m & m1 & Em & Eo & [[Ed ->]|(md & m2 & md2 & Ed & Es & Hs)])];
    [exact (frag_rel_refl R fr Rrefl)| |].
  - unfold frag_rel. cbn [af_set af_pre af_mid af_post af_opt af_moof af_mdat]. rewrite Em, Ed. cbn [orel].
    repeat split. eapply Ropt; eassumption.
  - destruct (aset_offsets_dv m1 md m2 md2 Es) as [D Hmd].
    assert (Rm : R m m2) by (eapply Rtrans; [eapply Ropt; eassumption|apply Rdv; exact D]).
    destruct Hs as [-> | ->]; unfold frag_rel; cbn [af_set af_pre af_mid af_post af_opt af_moof af_mdat]; rewrite Em, Ed; cbn [orel];
      repeat split; try exact Rm; [exact Hmd|apply md_fr_after; exact Hmd].
Qed.

Lemma afrag_encode_pure fr fr' r : afrag_encode fr = (fr', r) -> frag_fr fr fr'.
Proof.
  apply afrag_encode_rel; [apply moof_fr_refl|apply moof_fr_trans|apply moof_dv_fr|].
  intros m m1 _ E. destruct (af_opt fr); [apply optimize_moof_fr; exact E|injection E as <-; apply moof_fr_refl].
Qed.

Lemma afrag_encode_pure_noopt fr fr' r : afrag_encode fr = (fr', r) -> af_opt fr = false -> frag_dv fr fr'.
Proof.
  intros H Ho. revert H. apply afrag_encode_rel; [apply moof_dv_refl|apply moof_dv_trans|auto|].
  intros m m1 _ E. rewrite Ho in E. injection E as <-. apply moof_dv_refl.
Qed.

Lemma md_fr_size m m' : md_fr m m' -> md_size m' = md_size m.
Proof. intros [->| ->]; [reflexivity|apply md_size_touch_eq]. Qed.

Lemma frag_dv_size fr fr' : frag_dv fr fr' -> afrag_size fr' = afrag_size fr.
Proof.
  intros (H1 & H2 & H3 & _ & Hm & Hd). unfold afrag_size. rewrite H1, H2, H3.
  destruct (af_moof fr), (af_moof fr'); cbn [orel] in Hm; try contradiction;
    destruct (af_mdat fr), (af_mdat fr'); cbn [orel] in Hd; try contradiction; cbn [osize];
    rewrite ?(moof_dv_size _ _ Hm), ?(md_fr_size _ _ Hd); reflexivity.
Qed.

Lemma afrag_touch_fr (R : amoof -> amoof -> Prop) fr : (forall m, R m m) -> frag_rel R fr (afrag_touch fr).
Proof.
  intros Rrefl. unfold frag_rel, afrag_touch. cbn [af_set af_pre af_mid af_post af_opt af_moof af_mdat]. repeat split.
  - destruct (af_moof fr); cbn [orel]; auto.
  - destruct (af_mdat fr); cbn [option_map orel]; [right; reflexivity|exact I].
Qed.

Lemma afrag_step_pure fr o fr' out : afrag_step fr o = (fr', out) -> frag_fr fr fr'.
Proof.
  apply (agg_step_rel afrag_size afrag_touch afrag_touch afrag_encode frag_fr);
    [intros s; apply afrag_touch_fr, moof_fr_refl ..|exact afrag_encode_pure].
Qed.

Lemma traf_fr_wf t t' : traf_fr t t' -> atraf_wf t' = atraf_wf t.
Proof. exact (traf_rel_wf tfhd_fr trun_fr t t'). Qed.

Lemma moof_fr_wf m m' : moof_fr m m' -> amoof_wf m' = amoof_wf m.
Proof. exact (moof_rel_wf traf_fr traf_fr_wf m m'). Qed.

Lemma md_fr_wf m m' : md_fr m m' -> md_wf m' = md_wf m.
Proof. intros [->| ->]; [reflexivity|apply md_wf_touch]. Qed.

Lemma frag_fr_wf fr fr' : frag_fr fr fr' -> afrag_wf fr' = afrag_wf fr.
Proof.
  intros (H1 & H2 & H3 & _ & Hm & Hd). unfold afrag_wf. rewrite H1, H2, H3.
  destruct (af_moof fr), (af_moof fr'); cbn [orel] in Hm; try contradiction;
    destruct (af_mdat fr), (af_mdat fr'); cbn [orel] in Hd; try contradiction; cbn [oall];
    rewrite ?(moof_fr_wf _ _ Hm), ?(md_fr_wf _ _ Hd); reflexivity.
Qed.

Lemma afrag_touch_wf fr : afrag_wf (afrag_touch fr) = afrag_wf fr.
Proof. exact (frag_fr_wf _ _ (afrag_touch_fr moof_fr fr moof_fr_refl)). Qed.

(* any history keeps well-formedness *)
Lemma run_hist_wf {S} (step : S -> aop -> S * aout) (wf : S -> bool) :
  (forall s o s' out, step s o = (s', out) -> wf s' = wf s) ->
  forall ops s, wf (snd (run_hist step s ops)) = wf s.
Proof.
  intros H. induction ops as [|o rest IH]; intros s; [reflexivity|]. cbn [run_hist].
  destruct (step s o) as [s' out] eqn:E. pose proof (H s o s' out E) as W.
  destruct out; try (specialize (IH s'); destruct (run_hist step s' rest); cbn [snd] in *; congruence).
Qed.

Lemma run_hist_frag_wf ops : forall fr, afrag_wf fr = true -> afrag_wf (snd (run_hist afrag_step fr ops)) = true.
Proof.
  intros fr W. rewrite (run_hist_wf afrag_step afrag_wf); [exact W|].
  intros s o s' out H. exact (frag_fr_wf s s' (afrag_step_pure s o s' out H)).
Qed.

(* a fragment inside a segment: as frag_fr, and EncOptimize may have been overwritten by the segment's *)
Definition frag_fr_o (f f' : afrag) : Prop := frag_fr (af_set_opt f (af_opt f')) f'.

Lemma frag_fr_refl f : frag_fr f f.
Proof. exact (frag_rel_refl moof_fr f moof_fr_refl). Qed.

Lemma frag_fr_o_refl f : frag_fr_o f f.
Proof. unfold frag_fr_o. rewrite af_set_opt_same. apply frag_fr_refl. Qed.

Lemma enc_seq_rel {A} (enc : A -> A * res (list (list N))) (R : A -> A -> Prop) :
  (forall a, R a a) -> (forall a a' r, enc a = (a', r) -> R a a') ->
  forall l l' r, enc_seq enc l = (l', r) -> Forall2 R l l'.
Proof.
  intros Hrefl H. induction l as [|a rest IH]; intros l' r E; [injection E as <- _; constructor|].
  cbn [enc_seq] in E. destruct (enc a) as [a' ra] eqn:Ea. pose proof (H a a' ra Ea) as Ra.
  destruct ra as [b| | |].
  1:{ destruct (enc_seq enc rest) as [rest' r2] eqn:Er. injection E as <- _. constructor; [exact Ra|eapply IH; reflexivity]. }
  all: injection E as <- _; constructor; [exact Ra|apply Forall2_refl; exact Hrefl].
Qed.

Definition seg_fr (s s' : aseg) : Prop :=
  sg_styp s' = sg_styp s /\ sg_sidxs s' = sg_sidxs s /\ sg_opt s' = sg_opt s /\ Forall2 frag_fr_o (sg_frags s) (sg_frags s').

Lemma seg_fr_refl s : seg_fr s s.
Proof. repeat split. apply Forall2_refl, frag_fr_o_refl. Qed.

Lemma aseg_encode_pure s s' r : aseg_encode s = (s', r) -> seg_fr s s'.
Proof.
  unfold aseg_encode. destruct (enc_list enc_obox _); try (intros [= <- _]; apply seg_fr_refl).
  destruct (enc_frags (sg_opt s) (sg_frags s)) as [fs' r2] eqn:E. intros [= <- _].
  unfold seg_fr. cbn [aseg_with_frags sg_styp sg_sidxs sg_frags sg_opt]. repeat split.
  unfold enc_frags in E. eapply enc_seq_rel; [apply frag_fr_o_refl| |exact E].
  intros x x' rx Hx. unfold frag_fr_o. pose proof (afrag_encode_pure _ _ _ Hx) as P.
  assert (Ho : af_opt x' = sg_opt s) by (destruct P as (_ & _ & _ & O & _); exact O).
  rewrite Ho. exact P.
Qed.

(* a segment inside a file: EncOptimize may have been set by the file's *)
Definition seg_fr_o (s s' : aseg) : Prop := seg_fr (aseg_set_opt s (sg_opt s')) s'.
Definition fc_fr (c c' : fchild) : Prop :=
  match c, c' with FcMdat m, FcMdat m' => md_fr m m' | _, _ => c' = c end.

Lemma seg_fr_o_refl s : seg_fr_o s s.
Proof. unfold seg_fr_o. destruct s; apply seg_fr_refl. Qed.
Lemma fc_fr_refl c : fc_fr c c.
Proof. destruct c; cbn [fc_fr]; try reflexivity. left; reflexivity. Qed.

Definition file_fr (f f' : afile) : Prop :=
  fl_fragmented f' = fl_fragmented f /\ fl_mode f' = fl_mode f /\ fl_opt f' = fl_opt f /\ fl_shared f' = fl_shared f /\
  fl_init f' = fl_init f /\ fl_sidxs f' = fl_sidxs f /\ fl_mfra f' = fl_mfra f /\
  Forall2 seg_fr_o (fl_segs f) (fl_segs f') /\ Forall2 fc_fr (fl_children f) (fl_children f').

Lemma file_fr_refl f : file_fr f f.
Proof. repeat split; [apply Forall2_refl, seg_fr_o_refl|apply Forall2_refl, fc_fr_refl]. Qed.

(* a file that differs from f in its segments and children, each within the frame *)
Lemma file_fr_with f ss cs : Forall2 seg_fr_o (fl_segs f) ss -> Forall2 fc_fr (fl_children f) cs -> file_fr f (afile_with f ss cs).
Proof. intros Hs Hc. repeat split; assumption. Qed.

Lemma fc_touch_fr c : fc_fr c (fc_touch c).
Proof. destruct c; cbn [fc_touch fc_fr]; try reflexivity. right. reflexivity. Qed.

Lemma fc_encode_pure c c' r : fc_encode c = (c', r) -> fc_fr c c'.
Proof. rewrite fc_encode_eq. intros [= <- _]. apply fc_touch_fr. Qed.

Lemma afile_encode_pure f f' r : afile_encode f = (f', r) -> file_fr f f'.
Proof.
  unfold afile_encode. destruct (fl_fragmented f && negb (fl_mode f =? 0) && negb (fl_mode f =? 1)); [intros [= <- _]; apply file_fr_refl|].
  destruct (afile_seg_mode f).
  - destruct (enc_list enc_obox _); try (intros [= <- _]; apply file_fr_refl).
    destruct (enc_segs (fl_opt f) (fl_segs f)) as [ss' r2] eqn:E.
    assert (G : file_fr f (afile_with f ss' (fl_children f))).
    { apply file_fr_with; [|apply Forall2_refl, fc_fr_refl].
      unfold enc_segs in E. eapply enc_seq_rel; [apply seg_fr_o_refl| |exact E].
      intros x x' rx Hx. unfold seg_fr_o. pose proof (aseg_encode_pure _ _ _ Hx) as P.
      assert (Ho : sg_opt x' = sg_opt (if fl_opt f then aseg_set_opt x true else x)) by (destruct P as (_ & _ & O & _); exact O).
      destruct (fl_opt f); cbn [aseg_set_opt sg_opt] in Ho; rewrite Ho; [exact P|].
      destruct x; exact P. }
    destruct r2; try (intros [= <- _]; exact G).
    destruct (enc_list enc_obox (opt_list (fl_mfra f))); intros [= <- _]; exact G.
  - destruct (enc_children (fl_children f)) as [cs' r2] eqn:E. intros [= <- _].
    apply file_fr_with; [apply Forall2_refl, seg_fr_o_refl|].
    unfold enc_children in E. eapply enc_seq_rel; [apply fc_fr_refl|apply fc_encode_pure|exact E].
Qed.

(* Size() and Info stay within the frame as well, hence every operation does *)
Lemma map_rel {A} (R : A -> A -> Prop) (g : A -> A) : (forall a, R a (g a)) -> forall l, Forall2 R l (map g l).
Proof. intros H l. induction l; constructor; auto. Qed.

Lemma aseg_touch_fr s : seg_fr s (aseg_touch s).
Proof.
  repeat split. cbn [aseg_touch aseg_with_frags sg_frags]. apply map_rel. intros f.
  unfold frag_fr_o. change (af_opt (afrag_touch f)) with (af_opt f). rewrite af_set_opt_same. apply afrag_touch_fr, moof_fr_refl.
Qed.

Lemma aseg_step_pure s o s' out : aseg_step s o = (s', out) -> seg_fr s s'.
Proof. exact (agg_step_rel aseg_size aseg_touch aseg_touch aseg_encode seg_fr aseg_touch_fr aseg_touch_fr aseg_encode_pure s o s' out). Qed.

Lemma afile_touch_fr f : file_fr f (afile_touch f).
Proof.
  unfold afile_touch. destruct (afile_seg_mode f); apply file_fr_with;
    try (apply Forall2_refl; first [exact seg_fr_o_refl|exact fc_fr_refl]).
  - apply map_rel. intros s. unfold seg_fr_o. change (sg_opt (aseg_touch s)) with (sg_opt s).
    destruct s; apply aseg_touch_fr.
  - apply map_rel, fc_touch_fr.
Qed.

Lemma afile_info_fr f : file_fr f (afile_info f).
Proof. destruct (afile_info_cases f) as [-> | ->]; [apply afile_touch_fr|apply file_fr_refl]. Qed.

Lemma afile_step_pure f o f' out : afile_step f o = (f', out) -> file_fr f f'.
Proof. exact (agg_step_rel afile_size afile_touch afile_info afile_encode file_fr afile_touch_fr afile_info_fr afile_encode_pure f o f' out). Qed.

Lemma seg_fr_wf s s' : seg_fr s s' -> aseg_wf s' = aseg_wf s.
Proof.
  intros (H1 & H2 & _ & H). unfold aseg_wf. rewrite H1, H2. f_equal. revert H. apply Forall2_forallb_eq.
  intros f f' F. exact (frag_fr_wf _ _ F).
Qed.

Lemma fc_fr_wf c c' : fc_fr c c' -> fc_wf c' = fc_wf c.
Proof. destruct c, c'; cbn [fc_fr]; intros H; try discriminate H; try (injection H as H; subst); try reflexivity. exact (md_fr_wf _ _ H). Qed.

Lemma file_fr_wf f f' : file_fr f f' -> afile_wf f' = afile_wf f.
Proof.
  intros (_ & _ & _ & _ & H1 & H2 & H3 & Hs & Hc). unfold afile_wf. rewrite H1, H2, H3.
  rewrite (Forall2_forallb_eq seg_fr_o aseg_wf (fun s s' F => seg_fr_wf _ _ F) _ _ Hs).
  rewrite (Forall2_forallb_eq fc_fr fc_wf fc_fr_wf _ _ Hc). reflexivity.
Qed.

Lemma aseg_touch_wf s : aseg_wf (aseg_touch s) = aseg_wf s.
Proof. exact (seg_fr_wf _ _ (aseg_touch_fr s)). Qed.

Lemma aseg_step_wf s o s' out : aseg_step s o = (s', out) -> aseg_wf s' = aseg_wf s.
Proof. intros H. exact (seg_fr_wf s s' (aseg_step_pure s o s' out H)). Qed.

Lemma afile_step_wf f o f' out : afile_step f o = (f', out) -> afile_wf f' = afile_wf f.
Proof. intros H. exact (file_fr_wf f f' (afile_step_pure f o f' out H)). Qed.
