(* C02Theorems.v — the property theorems of C02 (Size() = bytes written = header size field, at every level)
   over the box model of C01.  Each is closed by `exact <lemma>` and followed by Print Assumptions. *)
From V.lib Require Import Base.
From V.c01 Require Import C01Codec C01Model.
From V.c01 Require Import C01Witness C01RealFiles C01RealWitness.
From V.c02 Require Import C02Proofs C02Witness C02DecProofs.

(* per leaf kind (all 14 value shapes at once): the bytes the encoder writes are Size() many, under the guard
   leaf_size_guard (4-character names, counts below 2^32; no version is excluded any more) *)
Theorem C02_leaf : forall l b, raw_leaf l (dflt_rsv l) = Ok b -> leaf_size_guard l = true -> lenN b = size_leaf l.
Proof. exact leaf_size. Qed.
Print Assumptions C02_leaf.

(* at EVERY node of a tree: the encoder succeeds, writes size_box bytes and its first field is size_box;
   a container's size is 8 + the sum of its children's sizes (size_box, by definition = containerSize) *)
Theorem C02_tree : forall t, size_ok t = true -> forall enc, raw_box false t = Ok enc -> every node_ok t.
Proof. exact tree_size. Qed.
Print Assumptions C02_tree.

Theorem C02_container_sum : forall h cs, size_box (MCont h cs) = 8 + sumN (map size_box cs).
Proof. exact cont_sum. Qed.
Print Assumptions C02_container_sum.

(* both encode paths: whenever Encode / EncodeSW report success the bytes written are Size() many *)
Theorem C02_encode_w : forall t enc, size_ok t = true -> encode_w t = Ok enc ->
  lenN enc = size_box t /\ hdr_size_field enc = size_box t.
Proof. exact encode_w_size. Qed.
Print Assumptions C02_encode_w.

Theorem C02_encode_sw : forall t enc, size_ok t = true -> encode_sw t = Ok enc ->
  lenN enc = size_box t /\ hdr_size_field enc = size_box t.
Proof. exact encode_sw_size. Qed.
Print Assumptions C02_encode_sw.

(* and under the guard both paths do succeed and agree (not vacuous) *)
Theorem C02_encode_ok : forall t enc, size_ok t = true -> raw_box false t = Ok enc ->
  encode_w t = Ok enc /\ encode_sw t = Ok enc.
Proof. exact encode_ok. Qed.
Print Assumptions C02_encode_ok.

(* "every structure obtained from the decoder": NO hypothesis on the tree.  For every slice the model of DecodeBoxSR accepts
   (whatever follows the box) with an exact tree -- the header seen at decode is the one Size() gives, the guarded trun /
   senc / esds / wvtt / dac3 / dec3 forms; exact_box is evaluated on every correspondence case of a run -- the property holds
   at EVERY node: the encoder succeeds, writes Size() bytes, and the size field it writes first is Size().  What size_ok
   asks of a tree in C02_tree (4-character names, counts and sizes below 2^32, below 2^64 for a large header) is here an
   invariant of the decoder: it follows from dec_hdr and C01's fixed-point induction over the decoder's recursion. *)
Theorem C02_decoded :
  (forall bs t rest, bytes_ok bs = true -> decode bs = Ok (t, rest) -> exact_box t = true -> every node_ok t) /\
  (* ... and both API paths (Encode with its per-box writers, EncodeSW into one writer of Size() bytes) succeed on it with the
     same Size() bytes, which are as many as the decoder consumed *)
  (forall bs t rest, bytes_ok bs = true -> decode bs = Ok (t, rest) -> exact_box t = true ->
     exists enc, encode_w t = Ok enc /\ encode_sw t = Ok enc /\ lenN enc = size_box t /\ hdr_size_field enc = size_box t /\
                 lenN enc + lenN rest = lenN bs) /\
  (* the box loop of DecodeFileSR: every node of every top-level box of a decoded file *)
  (forall bs ts, bytes_ok bs = true -> decode_file bs = Ok ts -> forallb exact_box ts = true -> Forall (every node_ok) ts).
Proof. exact (conj decoded_tree (conj decoded_tree_api (fun bs => decoded_seq _ bs))). Qed.
Print Assumptions C02_decoded.
(* (one theorem with three parts: each Print Assumptions over C01's fixed-point closure costs ~12 s of the quick tier) *)

Example C02_ex_decoded :
  bytes_ok (ex_moof_bytes ++ [0; 0; 0; 9]) = true /\ decode (ex_moof_bytes ++ [0; 0; 0; 9]) = Ok (ex_moof_tree, [0; 0; 0; 9]) /\
  exact_box ex_moof_tree = true /\
  bytes_ok w_unknown_large = true /\ decode w_unknown_large = Ok (treeof w_unknown_large, []) /\
  exact_box (treeof w_unknown_large) = true.
Proof. exact ex_decoded_ok. Qed.
Example C02_ex_decoded_file :
  bytes_ok rf_media_seg = true /\ decode_file rf_media_seg = Ok (seq_of rf_media_seg) /\
  forallb exact_box (seq_of rf_media_seg) = true /\ map box_name (seq_of rf_media_seg) = [n_styp; n_sidx; n_moof; n_mdat].
Proof. exact ex_decoded_file_ok. Qed.

(* the encoders are functions of the tree: encoding twice gives identical bytes (the model has no state;
   the Go side of this claim -- Size() mutating LargeSize, Info -- is checked by the harness histories) *)

(* --- witnesses of the repaired Size() defects (tfdt 4*Version, sidx 8*Version, unknown box with a large-size
   header): refuted on the pinned tree, theorems of the repaired one --- *)
Theorem C02_tfdt_v2_fixed : exists enc, encode_w t_tfdt_v2 = Ok enc /\ encode_sw t_tfdt_v2 = Ok enc /\
  lenN enc = size_box t_tfdt_v2 /\ hdr_size_field enc = lenN enc.
Proof. exact tfdt_v2_fixed. Qed.
Print Assumptions C02_tfdt_v2_fixed.

Theorem C02_sidx_v2_fixed : exists enc, encode_w t_sidx_v2 = Ok enc /\ lenN enc = size_box t_sidx_v2 /\
  hdr_size_field enc = lenN enc.
Proof. exact sidx_v2_fixed. Qed.
Print Assumptions C02_sidx_v2_fixed.

Theorem C02_unknown_large_fixed : exists t,
  decode w_unknown_large = Ok (t, []) /\ encode_w t = Ok w_unknown_large /\ lenN w_unknown_large = size_box t /\
  hdr_size_field w_unknown_large = size_box t.
Proof. exact unknown_large_fixed. Qed.
Print Assumptions C02_unknown_large_fixed.

(* finding C02-K3 (hdlr.Size() assumed a 4-character HandlerType), repaired by repo commit 3502d85: a two-character
   handler type is now sized as it is written; leaf_size_guard no longer mentions hdlr *)
Theorem C02_hdlr_fixed : exists enc, encode_w t_hdlr_bad = Ok enc /\ encode_sw t_hdlr_bad = Ok enc /\
  lenN enc = size_box t_hdlr_bad /\ hdr_size_field enc = lenN enc.
Proof. exact hdlr_fixed. Qed.
Print Assumptions C02_hdlr_fixed.

Example C02_ex_moof : size_ok ex_tree = true /\ exists enc, raw_box false ex_tree = Ok enc /\ lenN enc = 120.
Proof. exact ex_tree_ok. Qed.
