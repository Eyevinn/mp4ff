(* C02DecProofs.v — the property at EVERY node of EVERY tree the model of DecodeBoxSR / DecodeFileSR's box loop
   accepts as exact: no hypothesis on the tree itself (size_ok of C02_tree is not assumed; what it asked --
   4-character names, counts below 2^32, sizes below 2^32 / 2^64 -- is an invariant of the decoder, obtained
   here from C01's fixed-point induction (stable_all: the encoder succeeds with Size() bytes) and from what
   dec_hdr guarantees of the header every node was read from). *)
From V.lib Require Import Base.
From V.c01 Require Import C01Codec C01Model C01LeafProofs C01TableProofs C01TreeProofs C01WhyProofs C01SizeProofs
  C01LocalProofs C01StableProofs C01FixProofs.
From V.c02 Require Import C02Proofs.

(* the node itself: from the decode of the slice it came from *)
Lemma node_of_decode f bs t rest : bytes_ok bs = true -> decode_box f bs = Ok (t, rest) -> exact_box t = true ->
  node_ok t.
Proof.
  intros Hok H Hex.
  destruct (proj1 (stable_all f) _ _ _ Hok H Hex) as (enc & Henc & _ & Hsz & _).
  destruct (proj1 (fits_all f) _ _ _ Hok H Hex) as [Hfit _].
  destruct (decode_box_hdr _ _ _ _ H) as (h & r0 & Eh & Hbh).
  destruct (dec_hdr_spec _ _ _ Hok Eh) as (_ & Hle & _).
  destruct (dec_hdr_facts _ _ _ Hok Eh) as [Hn4 H64].
  exists enc. split; [exact Henc|]. split; [exact Hsz|].
  destruct (raw_starts _ _ _ Henc) as (tl & ->).
  destruct t as [h' l r|h' cs|h' p|h' l r cs]; cbn [box_hdr] in Hbh; subst h';
    cbn [hdr_of_raw size_box exact_box enc_fits] in *.
  - (* leaf *)
    apply andb_true_iff in Hex. destruct Hex as [Hh _]. unfold leaf_hdr. destruct (leaf_large l) eqn:El.
    + apply andb_true_iff in Hh. destruct Hh as [_ H2]. apply N.eqb_eq in H2.
      apply hdr_field_large; [rewrite (large_mdat _ El); reflexivity|lia].
    + cbn [orb] in Hfit. apply N.ltb_lt in Hfit.
      unfold hdr_exact in Hh. apply andb_true_iff in Hh. destruct Hh as [H1 H2]. apply N.eqb_eq in H1, H2.
      apply hdr_field_compact. lia.
  - (* container *)
    apply andb_true_iff in Hfit. destruct Hfit as [Hfit _]. apply N.ltb_lt in Hfit.
    apply hdr_field_compact. lia.
  - (* unknown box: Size() is the decoded header size, written with the header form it was read with *)
    destruct (8 <? h_len h) eqn:E8.
    + apply hdr_field_large; assumption.
    + cbn [orb] in Hfit. apply N.ltb_lt in Hfit. apply N.ltb_ge in E8.
      apply orb_true_iff in Hex. destruct Hex as [Hl|Hl]; apply N.eqb_eq in Hl; [|lia].
      apply hdr_field_compact. lia.
  - (* field prefix + children *)
    apply andb_true_iff in Hfit. destruct Hfit as [Hfit _]. apply N.ltb_lt in Hfit.
    apply andb_true_iff in Hex. destruct Hex as [Hex _]. apply andb_true_iff in Hex. destruct Hex as [Hh _].
    unfold hdr_exact in Hh. apply andb_true_iff in Hh. destruct Hh as [H1 H2]. apply N.eqb_eq in H1, H2.
    apply hdr_field_compact. lia.
Qed.

Definition nbox (f : nat) : Prop :=
  forall bs t rest, bytes_ok bs = true -> decode_box f bs = Ok (t, rest) -> exact_box t = true -> every node_ok t.
Definition nchildren (f : nat) : Prop :=
  forall target pos used bs cs rest, bytes_ok bs = true ->
    decode_children f target pos used bs = Ok (cs, rest) -> forallb exact_box cs = true -> Forall (every node_ok) cs.
Definition nentries (f : nat) : Prop :=
  forall target pos bs cs rest, bytes_ok bs = true ->
    decode_entries f target pos bs = Ok (cs, rest) -> forallb exact_box cs = true -> Forall (every node_ok) cs.

Lemma nchildren_step f : nbox f -> nchildren f -> nchildren (S f).
Proof.
  intros IHb IHc target pos used bs cs rest Hok H Hex. cbn [decode_children] in H.
  destruct (target <? pos); [discriminate|]. destruct (pos =? target); [injection H as <- <-; constructor|].
  destruct (decode_box f bs) as [[c r]| | |] eqn:Eb; try discriminate.
  destruct (negb (pos + size_box c =? used + (lenN bs - lenN r))); [discriminate|].
  destruct (decode_children f target (pos + size_box c) (used + (lenN bs - lenN r)) r) as [[cs' r']| | |] eqn:Ec; try discriminate.
  injection H as <- <-. cbn [forallb] in *. apply andb_true_iff in Hex. destruct Hex as [Hc Hcs].
  destruct (proj1 (tree_both f) _ _ _ Hok Eb Hc) as (_ & _ & _ & Hokr).
  constructor; [exact (IHb _ _ _ Hok Eb Hc)|exact (IHc _ _ _ _ _ _ Hokr Ec Hcs)].
Qed.

Lemma nentries_step f : nbox f -> nentries f -> nentries (S f).
Proof.
  intros IHb IHe target pos bs cs rest Hok H Hex. cbn [decode_entries] in H.
  destruct (target <=? pos); [injection H as <- <-; constructor|].
  destruct (decode_box f bs) as [[c r]| | |] eqn:Eb; try discriminate.
  destruct (decode_entries f target (pos + size_box c) r) as [[cs' r']| | |] eqn:Ec; try discriminate.
  injection H as <- <-. cbn [forallb] in *. apply andb_true_iff in Hex. destruct Hex as [Hc Hcs].
  destruct (proj1 (tree_both f) _ _ _ Hok Eb Hc) as (_ & _ & _ & Hokr).
  constructor; [exact (IHb _ _ _ Hok Eb Hc)|exact (IHe _ _ _ _ _ Hokr Ec Hcs)].
Qed.

Lemma nbox_step f : nbox f -> nchildren f -> nentries f -> nbox (S f).
Proof.
  intros IHb IHc IHe bs t rest Hok H Hex.
  pose proof (node_of_decode _ _ _ _ Hok H Hex) as Hnode.
  cbn [decode_box] in H.
  destruct (dec_hdr bs) as [[h r]| | |] eqn:Eh; try discriminate.
  destruct (dec_hdr_spec _ _ _ Hok Eh) as (Hokr & _ & _).
  destruct ((lenN r + h_len h <? h_size h) && negb (bytes_eqb (h_name h) n_mdat)); [discriminate|].
  destruct (lookup (h_name h) leaf_table) as [d|] eqn:El.
  - destruct (d h r) as [[[l rsv] r']| | |] eqn:Ed; try discriminate. injection H as <- <-.
    cbn [every]. split; [exact Hnode|exact I].
  - destruct (pre_lookup h r) as [[d lk]|] eqn:Epre0.
    { pose proof (pre_lookup_some _ _ _ Epre0) as Epre.
      destruct (d h r) as [[[l rsv] r1]| | |] eqn:Ed; try discriminate.
      assert (Hokr1 : forall cs, exact_box (MPre h l rsv cs) = true -> bytes_ok r1 = true).
      { intros cs Hex'. destruct (lookup_in _ _ _ Epre) as (k & Hin & Hk).
        pose proof (proj1 (Forall_forall _ _) pre_table_ok _ Hin) as [Hloss _]. cbn [fst snd] in Hloss.
        cbn [exact_box] in Hex'. apply andb_true_iff in Hex'. destruct Hex' as [Hex' _].
        apply andb_true_iff in Hex'. destruct Hex' as [_ Hg].
        now destruct (Hloss _ _ _ _ _ Hokr Ed Hg) as (_ & _ & _ & ?). }
      assert (Hgoal : forall cs, exact_box (MPre h l rsv cs) = true -> node_ok (MPre h l rsv cs) ->
                (forallb exact_box cs = true -> Forall (every node_ok) cs) -> every node_ok (MPre h l rsv cs)).
      { intros cs Hex' Hn Hk. cbn [exact_box] in Hex'. apply andb_true_iff in Hex'. destruct Hex' as [_ Hcs].
        cbn [every]. split; [exact Hn|]. apply every_children. exact (Hk Hcs). }
      destruct lk as [off|start].
      - destruct (h_size h <? off); [discriminate|].
        destruct (decode_children f (h_size h - off) 0 0 r1) as [[cs r'']| | |] eqn:Ec; try discriminate.
        destruct (pre_count_ok l (lenN cs)); [|discriminate]. injection H as <- <-.
        apply Hgoal; [assumption|assumption|]. intros Hcs. exact (IHc _ _ _ _ _ _ (Hokr1 _ Hex) Ec Hcs).
      - destruct (decode_entries f (h_size h) start r1) as [[cs r'']| | |] eqn:Ec; try discriminate. injection H as <- <-.
        apply Hgoal; [assumption|assumption|]. intros Hcs. exact (IHe _ _ _ _ _ (Hokr1 _ Hex) Ec Hcs). }
    destruct (cont_like h r).
    + destruct (decode_children f (h_size h - 8) 0 0 r) as [[cs r'']| | |] eqn:Ec; try discriminate.
      destruct (bytes_eqb (h_name h) n_edts && negb (edts_ok cs)); [discriminate|]. injection H as <- <-.
      cbn [exact_box] in Hex. apply andb_true_iff in Hex. destruct Hex as [Hex _].
      apply andb_true_iff in Hex. destruct Hex as [Hex _]. apply andb_true_iff in Hex. destruct Hex as [_ Hcs].
      cbn [every]. split; [exact Hnode|]. apply every_children. exact (IHc _ _ _ _ _ _ Hokr Ec Hcs).
    + destruct (rdB (payload_len h) r) as [[p r'']| | |] eqn:Ep; try discriminate. injection H as <- <-.
      cbn [every]. split; [exact Hnode|exact I].
Qed.

Lemma nodes_all f : nbox f /\ nchildren f /\ nentries f.
Proof.
  induction f as [|f (IHb & IHc & IHe)].
  - split; [|split].
    + intros bs t rest _ H. discriminate H.
    + intros target pos used bs cs rest _ H. discriminate H.
    + intros target pos bs cs rest _ H. discriminate H.
  - split; [|split]; [now apply nbox_step|now apply nchildren_step|now apply nentries_step].
Qed.

(* every slice DecodeBoxSR accepts (whatever follows the box) with an exact tree: at EVERY node the encoder succeeds,
   writes Size() bytes, and the size field it writes first is Size() *)
Lemma decoded_tree bs t rest : bytes_ok bs = true -> decode bs = Ok (t, rest) -> exact_box t = true -> every node_ok t.
Proof. intros Hok H Hex. exact (proj1 (nodes_all _) _ _ _ Hok H Hex). Qed.

(* ... and both API paths succeed on it with those bytes *)
Lemma decoded_tree_api bs t rest : bytes_ok bs = true -> decode bs = Ok (t, rest) -> exact_box t = true ->
  exists enc, encode_w t = Ok enc /\ encode_sw t = Ok enc /\ lenN enc = size_box t /\ hdr_size_field enc = size_box t /\
              lenN enc + lenN rest = lenN bs.
Proof.
  intros Hok H Hex. unfold decode in H.
  destruct (proj1 (stable_all _) _ _ _ Hok H Hex) as (enc & Henc & Hl & _ & _).
  destruct (proj1 (fits_all _) _ _ _ Hok H Hex) as [Hfit Hcaps].
  destruct (node_of_decode _ _ _ _ Hok H Hex) as (enc' & Henc' & Hsz & Hf).
  rewrite Henc in Henc'. injection Henc' as <-.
  exists enc. unfold encode_w, encode_sw. rewrite Hfit, Hcaps, Henc. cbn [andb].
  assert (Hle : (lenN enc <=? size_box t) = true) by (apply N.leb_le; lia). rewrite Hle.
  split; [reflexivity|]. split; [reflexivity|]. split; [exact Hsz|]. split; [exact Hf|exact Hl].
Qed.

(* the box loop of DecodeFileSR *)
Lemma decoded_seq f : forall bs ts, bytes_ok bs = true -> decode_seq f bs = Ok ts -> forallb exact_box ts = true ->
  Forall (every node_ok) ts.
Proof.
  induction f as [|f IH]; intros bs ts Hok H Hex; cbn [decode_seq] in H; [discriminate|].
  destruct bs as [|b0 bs0].
  { injection H as <-. constructor. }
  set (bs := b0 :: bs0) in *.
  destruct (decode bs) as [[t r]| | |] eqn:Ed; try discriminate.
  destruct (decode_seq f r) as [ts'| | |] eqn:Es; try discriminate. injection H as <-.
  cbn [forallb] in Hex. apply andb_true_iff in Hex. destruct Hex as [Ht Hts].
  pose proof (decoded_tree _ _ _ Hok Ed Ht) as Hn.
  unfold decode in Ed. destruct (proj1 (tree_both _) _ _ _ Hok Ed Ht) as (_ & _ & _ & Hokr).
  constructor; [exact Hn|exact (IH _ _ Hokr Es Hts)].
Qed.
