(* C02AggSencProofs.v — SencBox: the flag that Encode / Info set reaches a fixed point; every box built with
   CreateSencBox + AddSample (any history, IVs below 256 bytes) is `senc_ok`; a senc_ok box is left alone by
   Size / Info / Encode / EncodeSW, writes Size() bytes with a correct header on both encode paths, and is
   therefore a well-formed opaque box of the aggregate model; the AddSample text before the repairs is refuted. *)
From V.lib Require Import Base.
From V.c05 Require Import C05CodecModel C05CodecProofs.
From V.c02 Require Import C02AggModel C02AggSizeProofs C02AggSencModel.

Definition has_subs (s : senc) : bool := existsb (fun l => negb (is_nil l)) (sn_subs s).
Definition flag_ok (s : senc) : bool := negb (has_subs s) || sn_use_subs s.

Definition ivs_ok (s : senc) : bool :=
  if 0 <? sn_ivsize s then (lenN (sn_ivs s) =? sn_count s) && forallb (fun iv => lenN iv =? sn_ivsize s) (sn_ivs s)
  else true.
Definition subs_ok (s : senc) : bool := if sn_use_subs s then lenN (sn_subs s) =? sn_count s else is_nil (sn_subs s).

Definition senc_ok (s : senc) : bool :=
  negb (sn_np s) && (sn_read s =? 0) && flag_ok s && ivs_ok s && subs_ok s.

Lemma senc_setflag_idem s : senc_setflag (senc_setflag s) = senc_setflag s.
Proof.
  unfold senc_setflag. destruct (existsb _ (sn_subs s)) eqn:E; [|rewrite E; reflexivity].
  cbn [sn_with_flags sn_subs sn_flags]. rewrite E. unfold sn_with_flags. cbn [sn_version sn_flags sn_count sn_ivsize sn_ivs sn_subs sn_raw sn_np sn_read].
  f_equal. apply N.bits_inj. intros n. rewrite !N.setbit_eqb. destruct (B_SUBS =? n); reflexivity.
Qed.

Lemma senc_eta s : mkSenc (sn_version s) (sn_flags s) (sn_count s) (sn_ivsize s) (sn_ivs s) (sn_subs s) (sn_raw s) (sn_np s) (sn_read s) = s.
Proof. destruct s; reflexivity. Qed.

Lemma setbit_same f k : N.testbit f k = true -> N.setbit f k = f.
Proof.
  intros H. apply N.bits_inj. intros n. rewrite N.setbit_eqb. destruct (k =? n) eqn:E; [|reflexivity].
  apply N.eqb_eq in E. subst n. rewrite H. reflexivity.
Qed.

Lemma flag_ok_fix s : flag_ok s = true -> senc_setflag s = s.
Proof.
  unfold flag_ok, has_subs, senc_setflag, sn_use_subs. destruct (existsb _ (sn_subs s)); cbn [negb orb]; [|reflexivity].
  intros H. unfold sn_with_flags. rewrite (setbit_same _ _ H). apply senc_eta.
Qed.

Lemma lenN_be16 x : lenN (be16 x) = 2.
Proof. reflexivity. Qed.

Lemma lenN_enc_subs l : lenN (enc_subs l) = 2 + 6 * lenN l.
Proof.
  unfold enc_subs. rewrite lenN_app, lenN_be16.
  rewrite (lenN_flat_map_const (fun p : N * N => be16 (fst p) ++ be32 (snd p)) 6); [lia|]. intros a. reflexivity.
Qed.

Lemma lenN_flat_map_sum {A} (g : A -> list N) l : lenN (flat_map g l) = sumN (map (fun a => lenN (g a)) l).
Proof. induction l as [|a t IH]; [reflexivity|]. cbn [flat_map map sumN]. rewrite lenN_app, IH. reflexivity. Qed.

Lemma map_nth_seq {A B} (f : A -> B) (d : A) l : map (fun i => f (nth i l d)) (seq 0 (length l)) = map f l.
Proof.
  induction l as [|a t IH]; [reflexivity|]. cbn [length seq map nth]. f_equal.
  rewrite <- seq_shift, map_map. exact IH.
Qed.

Lemma sumN_add {A} (f g : A -> N) l : sumN (map (fun a => f a + g a) l) = sumN (map f l) + sumN (map g l).
Proof. induction l as [|a t IH]; [reflexivity|]. cbn [map sumN]. rewrite IH. lia. Qed.

Lemma sumN_const {A} (f : A -> N) k l : (forall a, In a l -> f a = k) -> sumN (map f l) = lenN l * k.
Proof.
  intros H. induction l as [|a t IH]; [reflexivity|]. cbn [map sumN]. rewrite lenN_cons, H by (left; reflexivity).
  rewrite IH by (intros x Hx; apply H; right; exact Hx). lia.
Qed.

Lemma senc_ok_parts s : senc_ok s = true ->
  sn_np s = false /\ sn_read s = 0 /\ flag_ok s = true /\ ivs_ok s = true /\ subs_ok s = true.
Proof.
  unfold senc_ok. intros H. apply andb_true_iff in H. destruct H as [H P5]. apply andb_true_iff in H. destruct H as [H P4].
  apply andb_true_iff in H. destruct H as [H P3]. apply andb_true_iff in H. destruct H as [P1 P2].
  apply negb_true_iff in P1. apply N.eqb_eq in P2. repeat split; assumption.
Qed.

Lemma senc_ok_index s : senc_ok s = true -> senc_index_bad s = false.
Proof.
  intros H. destruct (senc_ok_parts s H) as (_ & _ & _ & Hi & Hs). unfold senc_index_bad, ivs_ok, subs_ok in *.
  destruct (0 <? sn_ivsize s); cbn [andb orb].
  - apply andb_true_iff in Hi. destruct Hi as [Hi _]. apply N.eqb_eq in Hi. rewrite Hi, N.ltb_irrefl. cbn [orb].
    destruct (sn_use_subs s); [|reflexivity]. apply N.eqb_eq in Hs. rewrite Hs, N.ltb_irrefl. reflexivity.
  - destruct (sn_use_subs s); [|reflexivity]. apply N.eqb_eq in Hs. rewrite Hs, N.ltb_irrefl. reflexivity.
Qed.

(* the bytes of a per-sample field that is present (c) in a table with one entry per sample *)
Lemma sum_nth_if {A} (c : bool) (g : A -> list N) (d : A) l n : (c = true -> length l = n) ->
  sumN (map (fun i => lenN (if c then g (nth i l d) else [])) (seq 0 n)) = if c then sumN (map (fun a => lenN (g a)) l) else 0.
Proof.
  destruct c; intros H; [rewrite <- (H eq_refl), (map_nth_seq (fun a => lenN (g a))); reflexivity|].
  rewrite (sumN_const (fun _ : nat => lenN (@nil N)) 0); [lia|reflexivity].
Qed.

(* the per-sample data a senc_ok box writes: the IVs and the sub-sample tables; Size() = calcSize() counts them *)
Lemma senc_ok_body s : senc_ok s = true ->
  exists body, senc_body s = Ok body /\ senc_size s = Ok (lenN body + 16) /\
    lenN body = sn_count s * sn_ivsize s + (if sn_use_subs s then sumN (map (fun l => 2 + 6 * lenN l) (sn_subs s)) else 0).
Proof.
  intros H. destruct (senc_ok_parts s H) as (Hr & Hd & Hf & Hi & Hs).
  unfold senc_size, senc_calc, senc_body, senc_body_gen. rewrite Hr, Hd, (senc_ok_index s H). cbn [N.ltb N.compare andb]. rewrite andb_false_r.
  destruct ((sn_ivsize s =? 0) && negb (sn_use_subs s)) eqn:E0.
  { apply andb_true_iff in E0. destruct E0 as [E0 E1]. apply N.eqb_eq in E0. apply negb_true_iff in E1. rewrite E0, E1.
    exists []. repeat split. change (lenN (@nil N)) with 0. lia. }
  unfold ivs_ok in Hi. unfold subs_ok in Hs. set (n := N.to_nat (sn_count s)).
  (* one IV per sample when IVs are in use, one sub-sample table per sample when the flag is set *)
  assert (Li : (0 <? sn_ivsize s) = true -> length (sn_ivs s) = n /\ sumN (map (fun iv => lenN iv) (sn_ivs s)) = sn_count s * sn_ivsize s).
  { intros Ez. rewrite Ez in Hi. apply andb_true_iff in Hi. destruct Hi as [Hl Ha]. apply N.eqb_eq in Hl.
    split; [unfold n, lenN in *; lia|]. rewrite <- Hl. apply sumN_const. intros iv Hin. apply N.eqb_eq. exact (proj1 (forallb_forall _ _) Ha iv Hin). }
  assert (Ls : sn_use_subs s = true -> length (sn_subs s) = n).
  { intros Eu. rewrite Eu in Hs. apply N.eqb_eq in Hs. unfold n, lenN in *. lia. }
  assert (Hs2 : sn_use_subs s && (lenN (sn_subs s) <? sn_count s) = false).
  { destruct (sn_use_subs s); [|reflexivity]. specialize (Ls eq_refl). apply N.ltb_ge. unfold n, lenN in *. lia. }
  rewrite Hs2. eexists. split; [reflexivity|]. set (body := flat_map _ _).
  assert (Hlen : lenN body = sn_count s * sn_ivsize s + (if sn_use_subs s then sumN (map (fun l => 2 + 6 * lenN l) (sn_subs s)) else 0)).
  { unfold body. rewrite lenN_flat_map_sum. unfold senc_sample_bytes. rewrite (map_ext _ _ (fun i => lenN_app _ _)).
    etransitivity; [apply sumN_add|].
    rewrite (sum_nth_if (0 <? sn_ivsize s) (fun iv => iv) [] (sn_ivs s) n) by (intros Ez; apply (Li Ez)).
    rewrite (sum_nth_if (sn_use_subs s) enc_subs [] (sn_subs s) n Ls), (map_ext _ _ lenN_enc_subs). f_equal.
    destruct (0 <? sn_ivsize s) eqn:Ez; [apply (Li eq_refl)|]. apply N.ltb_ge in Ez. assert (sn_ivsize s = 0) as -> by lia. lia. }
  split; [|exact Hlen]. rewrite Hlen. f_equal. destruct (sn_use_subs s); [|lia]. fold n. rewrite <- (Ls eq_refl), firstn_all. lia.
Qed.

(* the box the encoders write when Size() is n and the per-sample data is `body` *)
Definition senc_box (s : senc) (n : N) (body : list N) : list N :=
  (be32 n ++ TY_SENC) ++ be32 (u32 (sn_version s * 16777216 + sn_flags s)) ++ be32 (sn_count s) ++ body.

Lemma lenN_senc_box s n body : lenN (senc_box s n body) = 16 + lenN body.
Proof. unfold senc_box. rewrite !lenN_app, !lenN_be32. change (lenN TY_SENC) with 4. lia. Qed.

Lemma senc_box_ok s n body : n < TWO32 -> lenN body + 16 = n -> box_ok (senc_box s n body) = true.
Proof.
  intros Hn Hl. apply (hdr_body_ok TY_SENC n); [reflexivity| |rewrite !lenN_app, !lenN_be32; lia].
  unfold enc_hdr. rewrite (proj2 (N.leb_gt _ _) Hn). reflexivity.
Qed.

(* Encode and EncodeSW of a box that the flag setting leaves alone *)
Lemma senc_encode_eq s n body : senc_setflag s = s -> senc_size s = Ok n -> senc_body s = Ok body ->
  if TWO32 <=? n then snd (senc_encode_w s) = Err /\ snd (senc_encode_sw s) = Err
  else senc_encode_sw s = (s, Ok (senc_box s n body)) /\
       senc_encode_w s = (s, if n <? 16 + lenN body then Err else Ok (senc_box s n body)).
Proof.
  intros Hf Hn Hb. unfold senc_encode_w, senc_encode_sw. rewrite Hf. unfold senc_all, senc_all_gen. fold senc_body.
  rewrite Hn, Hb. cbn [rbind]. unfold enc_hdr. destruct (TWO32 <=? n); cbn [rbind fst snd]; [split; reflexivity|].
  fold (senc_box s n body). rewrite lenN_senc_box. split; reflexivity.
Qed.

(* the box as Encode writes it: header, versionAndFlags, sample count, per-sample data *)
Theorem senc_ok_encode s : senc_ok s = true ->
  exists n, senc_size s = Ok n /\
    ((TWO32 <=? n) = true /\ snd (senc_encode_w s) = Err /\ snd (senc_encode_sw s) = Err
     \/ exists b, senc_encode_w s = (s, Ok b) /\ senc_encode_sw s = (s, Ok b) /\ lenN b = n /\ box_ok b = true) /\
    senc_info s = Ok s.
Proof.
  intros H. destruct (senc_ok_parts s H) as (Hr & Hd & Hf & Hi & Hs).
  destruct (senc_ok_body s H) as (body & Hb & Hn & _). set (n := lenN body + 16) in *. exists n. split; [exact Hn|].
  pose proof (flag_ok_fix s Hf) as Hfix. split.
  - pose proof (senc_encode_eq s n body Hfix Hn Hb) as E. destruct (TWO32 <=? n) eqn:Eb; [left; split; [reflexivity|exact E]|].
    right. destruct E as [Esw Ew]. apply N.leb_gt in Eb. exists (senc_box s n body).
    assert (F : (n <? 16 + lenN body) = false) by (apply N.ltb_ge; unfold n; lia). rewrite F in Ew.
    repeat split; [exact Ew|exact Esw|rewrite lenN_senc_box; unfold n; lia|apply senc_box_ok; [exact Eb|reflexivity]].
  - unfold senc_info. rewrite Hr, Hfix, (senc_ok_index s H). reflexivity.
Qed.

(* hence a senc_ok box is a well-formed (stateless, Size() = bytes written = size field) opaque box *)
Theorem senc_ok_obox s : senc_ok s = true -> ob_err (senc_obox s) = false -> ob_wf (senc_obox s) = true.
Proof.
  intros H. destruct (senc_ok_encode s H) as (n & Hn & [(Hbig & Hw & _)|(b & Hw & _ & Hl & Hb)] & _);
    unfold senc_obox; rewrite Hn.
  - rewrite Hw. cbn [ob_err]. discriminate.
  - rewrite Hw. cbn [snd]. intros _. unfold ob_wf. cbn [ob_bytes ob_size]. rewrite Hl, N.eqb_refl, Hb. reflexivity.
Qed.

(* what CreateSencBox + AddSample maintain: either no per-sample IVs at all, or one IV of the same length per sample *)
Definition ivs_built (s : senc) : bool :=
  if is_nil (sn_ivs s) then sn_ivsize s =? 0
  else (0 <? sn_ivsize s) && (lenN (sn_ivs s) =? sn_count s) && forallb (fun iv => lenN iv =? sn_ivsize s) (sn_ivs s).

Definition built_ok (s : senc) : bool :=
  negb (sn_np s) && (sn_read s =? 0) && ivs_built s && subs_ok s.

Lemma built_ok_senc_ok s : built_ok s = true -> senc_ok s = true.
Proof.
  unfold built_ok, senc_ok. intros H. apply andb_true_iff in H. destruct H as [H Hs]. apply andb_true_iff in H. destruct H as [H Hi].
  rewrite H, Hs. cbn [andb]. rewrite andb_true_r.
  assert (Hf : flag_ok s = true).
  { unfold flag_ok, has_subs. unfold subs_ok in Hs. destruct (sn_use_subs s); [apply orb_true_r|].
    destruct (sn_subs s); [reflexivity|discriminate]. }
  assert (Hi2 : ivs_ok s = true).
  { unfold ivs_ok, ivs_built in *. destruct (sn_ivs s) as [|x t]; cbn [is_nil] in Hi.
    - apply N.eqb_eq in Hi. rewrite Hi. reflexivity.
    - apply andb_true_iff in Hi. destruct Hi as [Hi Ha]. apply andb_true_iff in Hi. destruct Hi as [Hz Hl]. rewrite Hz, Hl, Ha. reflexivity. }
  rewrite Hf, Hi2. reflexivity.
Qed.
Lemma u8_small x : x < 256 -> u8 x = x.
Proof. intros H. unfold u8. apply N.mod_small. exact H. Qed.

Lemma lenN_repeat {A} (x : A) k : lenN (repeat x k) = N.of_nat k.
Proof. unfold lenN. rewrite repeat_length. reflexivity. Qed.

Lemma senc_add_built s iv subs s' :
  senc_add s iv subs = Ok s' -> built_ok s = true -> lenN iv < 256 -> sn_count s + 1 < 4294967296 ->
  built_ok s' = true /\ sn_count s' = sn_count s + 1.
Proof.
  intros Ha H Hiv Hc. unfold built_ok in H.
  apply andb_true_iff in H. destruct H as [H Hs]. apply andb_true_iff in H. destruct H as [H Hi].
  apply andb_true_iff in H. destruct H as [Hnp Hrd]. apply negb_true_iff in Hnp. apply N.eqb_eq in Hrd.
  assert (Hu : u32 (sn_count s + 1) = sn_count s + 1) by (unfold u32; apply N.mod_small; exact Hc).
  unfold senc_add, senc_add_gen in Ha. set (X := match iv with [] => _ | _ :: _ => _ end) in Ha.
  (* the IV part: what comes out differs from s in the IV fields, which are as built_ok wants them for one more sample *)
  assert (S1 : forall s1, X = Ok s1 -> exists z l, s1 = sn_with_iv s z l /\
            (if is_nil l then z =? 0 else (0 <? z) && (lenN l =? sn_count s + 1) && forallb (fun x => lenN x =? z) l) = true).
  { subst X. intros s1. unfold ivs_built in Hi. destruct iv as [|b0 iv']; cbn [andb].
    - destruct (negb (sn_count s =? 0) && negb (is_nil (sn_ivs s))) eqn:Em; [discriminate|]. intros [= <-].
      exists (sn_ivsize s), (sn_ivs s). split; [destruct s; reflexivity|].
      destruct (sn_ivs s) as [|x t]; cbn [is_nil] in *; [exact Hi|].
      (* IVs in use and no IV given: refused unless there is no sample yet, which cannot be with IVs present *)
      rewrite andb_true_r in Em. apply negb_false_iff, N.eqb_eq in Em.
      apply andb_true_iff in Hi. destruct Hi as [Hi _]. apply andb_true_iff in Hi. destruct Hi as [_ Hl].
      apply N.eqb_eq in Hl. unfold lenN in Hl. cbn [length] in Hl. lia.
    - destruct (sn_count s =? 0) eqn:Ec.
      + intros [= <-]. exists (u8 (lenN (b0 :: iv'))), (sn_ivs s ++ [b0 :: iv']). split; [reflexivity|].
        apply N.eqb_eq in Ec. destruct (sn_ivs s) as [|x t]; cbn [is_nil] in Hi.
        * cbn [app is_nil forallb]. rewrite (u8_small _ Hiv), Ec. rewrite !N.eqb_refl. cbn [andb].
          rewrite ?andb_true_r. apply N.ltb_lt. rewrite lenN_cons. lia.
        * apply andb_true_iff in Hi. destruct Hi as [Hi _]. apply andb_true_iff in Hi. destruct Hi as [_ Hl].
          apply N.eqb_eq in Hl. unfold lenN in Hl. cbn [length] in Hl. lia.
      + destruct (negb (lenN (b0 :: iv') =? sn_ivsize s)) eqn:Em; [discriminate|]. intros [= <-].
        apply negb_false_iff, N.eqb_eq in Em.
        exists (sn_ivsize s), (sn_ivs s ++ [b0 :: iv']). split; [reflexivity|].
        destruct (sn_ivs s) as [|x t]; cbn [is_nil] in Hi.
        * (* no IVs so far and samples present: ivsize is 0, and a non-empty IV has another length *)
          apply N.eqb_eq in Hi. rewrite Hi in Em. rewrite lenN_cons in Em. lia.
        * apply andb_true_iff in Hi. destruct Hi as [Hi Hall]. apply andb_true_iff in Hi. destruct Hi as [Hz Hl]. apply N.eqb_eq in Hl.
          assert (Hnn : is_nil ((x :: t) ++ [b0 :: iv']) = false) by reflexivity. rewrite Hnn, Hz. cbn [andb].
          rewrite lenN_app, Hl. change (lenN [b0 :: iv']) with 1. rewrite N.eqb_refl. cbn [andb].
          rewrite forallb_app, Hall. cbn [forallb andb]. rewrite Em, N.eqb_refl. reflexivity. }
  clearbody X. destruct X as [s1| | |]; cbn [rbind] in Ha; try discriminate.
  destruct (S1 s1 eq_refl) as (z & l & -> & Hi1). clear S1. apply ok_inj in Ha. subst s'.
  (* the sub-sample part *)
  unfold built_ok, ivs_built, subs_ok, sn_use_subs in *.
  cbn [sn_with_iv sn_version sn_flags sn_count sn_ivsize sn_ivs sn_subs sn_raw sn_np sn_read] in *.
  destruct (negb (is_nil subs) || N.testbit (sn_flags s) B_SUBS) eqn:Eb;
    cbn [sn_with_iv sn_version sn_flags sn_count sn_ivsize sn_ivs sn_subs sn_raw sn_np sn_read]; rewrite Hnp, Hrd, Hu, Hi1; cbn [negb andb N.eqb];
    split; try reflexivity.
  - destruct (N.testbit (sn_flags s) B_SUBS) eqn:Ef.
    + (* flag already set: one entry per sample so far, nothing to pad *)
      apply N.eqb_eq in Hs.
      assert (Hp : (N.to_nat (sn_count s) - length (sn_subs s))%nat = 0%nat) by (unfold lenN in Hs; lia).
      rewrite Hp. cbn [repeat]. rewrite app_nil_r.
      assert (Hfl : N.testbit (if negb (is_nil subs) then N.setbit (sn_flags s) B_SUBS else sn_flags s) B_SUBS = true).
      { destruct (negb (is_nil subs)); [rewrite N.setbit_eqb, N.eqb_refl; reflexivity|exact Ef]. }
      rewrite Hfl. apply N.eqb_eq. rewrite lenN_app, Hs. reflexivity.
    + (* the first sample with sub-samples: the earlier samples get empty entries *)
      rewrite orb_false_r in Eb. rewrite Eb. rewrite N.setbit_eqb, N.eqb_refl. cbn [orb].
      destruct (sn_subs s); [|discriminate]. cbn [app length]. rewrite Nat.sub_0_r.
      apply N.eqb_eq. rewrite lenN_app, lenN_repeat, N2Nat.id. reflexivity.
  - apply orb_false_iff in Eb. destruct Eb as [_ Ef]. rewrite Ef in *. exact Hs.
Qed.

Lemma senc_create_built : built_ok senc_create = true.
Proof. reflexivity. Qed.

(* any history of AddSample calls (refused samples included) *)
Theorem senc_adds_built l : forall s,
  built_ok s = true -> Forall (fun p => lenN (fst p) < 256) l -> sn_count s + lenN l < 4294967296 ->
  built_ok (senc_adds senc_add s l) = true.
Proof.
  induction l as [|[iv subs] rest IH]; intros s H Hl Hc; [exact H|].
  cbn [senc_adds]. inversion Hl as [|? ? Hiv Hrest]; subst. cbn [fst] in Hiv. rewrite lenN_cons in Hc.
  destruct (senc_add s iv subs) as [s'| | |] eqn:E.
  - destruct (senc_add_built s iv subs s' E H Hiv ltac:(lia)) as [H' Hc']. apply IH; [exact H'|exact Hrest|lia].
  - apply IH; [exact H|exact Hrest|lia].
  - apply IH; [exact H|exact Hrest|lia].
  - apply IH; [exact H|exact Hrest|lia].
Qed.

(* ------------------------------------------------------------------ the text before the repairs *)
Lemma senc_pinned_size_refuted : exists l, senc_size (senc_adds senc_add_pinned senc_create l) = Panic.
Proof. exists [([], []); ([], [(1, 2)])]. vm_compute. reflexivity. Qed.

Lemma senc_pinned_encode_refuted : exists l n,
  senc_size (senc_adds senc_add_pinned senc_create l) = Ok n /\
  snd (senc_encode_w (senc_adds senc_add_pinned senc_create l)) = Panic.
Proof. exists [([1; 2; 3; 4; 5; 6; 7; 8], []); ([], [])], 32. split; vm_compute; reflexivity. Qed.

(* a box whose flag is not consistent (only reachable by writing the fields directly): Encode changes Size() *)
Lemma senc_flag_refuted : exists s n n',
  senc_size s = Ok n /\ senc_size (fst (senc_encode_w s)) = Ok n' /\ n <> n'.
Proof.
  exists (mkSenc 0 0 1 0 [] [[(1, 2)]] [] false 0), 16, 24. split; [vm_compute; reflexivity|]. split; [vm_compute; reflexivity|discriminate].
Qed.
