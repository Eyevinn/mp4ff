(* C02AggC12Proofs.v — the link to C12's model of File.Encode in segment mode (coq/c12/C12Model.v, read-only):
   abstracting every box of the aggregate model to C12's `topbox` (kind, Size()), the boxes this model writes
   are, in number, order and length, the boxes C12.encode_file lists for the structure reached after Encode. *)
From V.lib Require Import Base.
From V.c05 Require Import C05Model C05FragModel C05CodecModel.
From V.c12 Require C12Model.
From V.c02 Require Import C02AggModel C02AggSizeProofs C02AggOptProofs C02AggFragProofs C02AggFileProofs.

Definition bytes_eqb (a b : list N) : bool :=
  (length a =? length b)%nat && forallb (fun p => fst p =? snd p) (combine a b).

Definition kind_of_type (ty : list N) : C12Model.kind :=
  if bytes_eqb ty [102; 116; 121; 112] then C12Model.KFtyp
  else if bytes_eqb ty [115; 116; 121; 112] then C12Model.KStyp
  else if bytes_eqb ty [109; 111; 111; 118] then C12Model.KMoov
  else if bytes_eqb ty [115; 105; 100; 120] then C12Model.KSidx
  else if bytes_eqb ty [101; 109; 115; 103] then C12Model.KEmsg
  else if bytes_eqb ty [109; 102; 114; 97] then C12Model.KMfra
  else C12Model.KOther.

Definition tb (k : C12Model.kind) (sz : N) : C12Model.topbox :=
  C12Model.mkBox k 0 sz 0 0 [] false [] false [] [] 0 0 0 0.

Definition abs_obox (o : obox) : C12Model.topbox := tb (kind_of_type (ob_type o)) (ob_size o).
Definition abs_moof (m : amoof) : C12Model.topbox := tb C12Model.KMoof (amoof_size m).
Definition abs_mdat (m : mdat) : C12Model.topbox := tb C12Model.KMdat (md_size m).

Definition abs_frag (fr : afrag) : C12Model.fragment :=
  C12Model.mkFrag 0
    (map abs_obox (af_pre fr) ++ C12Model.opt_list (option_map abs_moof (af_moof fr)) ++ map abs_obox (af_mid fr)
     ++ C12Model.opt_list (option_map abs_mdat (af_mdat fr)) ++ map abs_obox (af_post fr))
    (option_map abs_moof (af_moof fr)) (option_map abs_mdat (af_mdat fr)).

Definition abs_seg (s : aseg) : C12Model.segment :=
  C12Model.mkSeg (option_map abs_obox (sg_styp s)) 0
    (map (fun o => C12Model.mkSidx (abs_obox o) 0) (sg_sidxs s)) (map abs_frag (sg_frags s)).

Definition abs_file (f : afile) : C12Model.file :=
  C12Model.mkFile None None None (option_map (map abs_obox) (fl_init f))
    (map (fun o => C12Model.mkSidx (abs_obox o) 0) (fl_sidxs f)) None (option_map abs_obox (fl_mfra f))
    (map abs_seg (fl_segs f)) [] (fl_fragmented f) false.

Definition sizes (l : list C12Model.topbox) : list N := map C12Model.b_size l.
Definition blens (l : list (list N)) : list N := map (fun b => lenN b) l.

Lemma sizes_app a b : sizes (a ++ b) = sizes a ++ sizes b.
Proof. apply map_app. Qed.
Lemma blens_app a b : blens (a ++ b) = blens a ++ blens b.
Proof. apply map_app. Qed.

Lemma sizes_oboxes l bs : enc_list enc_obox l = Ok bs -> obs_wf l = true -> sizes (map abs_obox l) = blens bs.
Proof.
  intros H W. destruct (enc_list_ok enc_obox ob_size ob_wf enc_obox_ok l bs H W) as [L _].
  unfold sizes, blens. rewrite map_map. cbn [abs_obox tb C12Model.b_size]. symmetry. exact L.
Qed.

Lemma sidx_sizes l : sizes (map C12Model.sx_box (map (fun o => C12Model.mkSidx (abs_obox o) 0) l)) = sizes (map abs_obox l).
Proof. rewrite map_map. reflexivity. Qed.

Lemma frag_c12 fr fr' boxes : afrag_encode fr = (fr', Ok boxes) -> afrag_wf fr = true ->
  exists tbs, C12Model.encode_fragment (abs_frag fr') = Ok tbs /\ sizes tbs = blens boxes.
Proof.
  intros H W. destruct (afrag_encode_inv fr fr' boxes H) as [m m1 md m2 md2 b1 b2 b3 b4 b5 Em Eo Ed Es E1 E2 E3 E4 E5 -> ->].
  destruct (afrag_wf_parts fr W) as (W1 & W2 & W3 & W4 & W5). rewrite Em in W2. rewrite Ed in W4. cbn [oall] in W2, W4.
  destruct (enc_state_wf fr m m1 md m2 md2 Eo Es W2 W4) as (_ & Wm2 & Wd2 & _).
  destruct (amoof_enc_ok m2 b2 E2 Wm2) as [L2 _]. destruct (amd_enc_ok md2 _ b4 E4 Wd2) as (_ & L4 & _).
  unfold abs_frag, C12Model.encode_fragment. cbn [af_set af_pre af_moof af_mid af_mdat af_post option_map C12Model.fr_moof C12Model.fr_mdat C12Model.fr_children].
  eexists. split; [reflexivity|].
  rewrite !sizes_app, !blens_app. rewrite (sizes_oboxes _ _ E1 W1), (sizes_oboxes _ _ E3 W3), (sizes_oboxes _ _ E5 W5).
  cbn [C12Model.opt_list sizes blens map abs_moof abs_mdat tb C12Model.b_size]. rewrite L2, L4, md_size_touch_eq. reflexivity.
Qed.

Lemma seq_c12 {A B} (enc : A -> A * res (list (list N))) (wf : A -> bool) (absx : A -> B)
  (cenc : B -> res (list C12Model.topbox)) (cencs : list B -> res (list C12Model.topbox)) :
  (cencs [] = Ok []) ->
  (forall b t, cencs (b :: t) = (do a <- cenc b; do r <- cencs t; Ok (a ++ r))) ->
  (forall a a' bs, enc a = (a', Ok bs) -> wf a = true -> exists tbs, cenc (absx a') = Ok tbs /\ sizes tbs = blens bs) ->
  forall l l' bs, enc_seq enc l = (l', Ok bs) -> forallb wf l = true ->
  exists tbs, cencs (map absx l') = Ok tbs /\ sizes tbs = blens bs.
Proof.
  intros Hnil Hcons Hone l l' bs H. apply enc_seq_ok in H.
  induction H as [|a a' b rest rest' b2 Ea _ IH]; intros W; [exists []; split; [exact Hnil|reflexivity]|].
  cbn [forallb] in W. apply andb_true_iff in W. destruct W as [Wa Wr].
  destruct (Hone a a' b Ea Wa) as (t1 & C1 & S1). destruct (IH Wr) as (t2 & C2 & S2).
  exists (t1 ++ t2). cbn [map]. rewrite Hcons, C1, C2. cbn [rbind]. split; [reflexivity|].
  rewrite sizes_app, blens_app, S1, S2. reflexivity.
Qed.

Lemma seg_c12 s s' boxes : aseg_encode s = (s', Ok boxes) -> aseg_wf s = true ->
  exists tbs, C12Model.encode_segment (abs_seg s') = Ok tbs /\ sizes tbs = blens boxes.
Proof.
  intros H W. destruct (aseg_encode_inv s s' boxes H) as (b1 & fs' & b2 & E1 & E2 & -> & ->).
  destruct (aseg_wf_parts s W) as [W1 W2].
  destruct (seq_c12 (fun f => afrag_encode (af_set_opt f (sg_opt s))) afrag_wf abs_frag C12Model.encode_fragment
              C12Model.encode_fragments eq_refl (fun _ _ => eq_refl)
              (fun a a' bs Ha Wa => frag_c12 _ a' bs Ha Wa) _ _ _ E2 W2) as (t2 & C2 & S2).
  unfold C12Model.encode_segment, abs_seg. cbn [aseg_with_frags sg_styp sg_sidxs sg_frags C12Model.sg_frags C12Model.sg_styp C12Model.sg_sidxs].
  rewrite C2. cbn [rbind]. eexists. split; [reflexivity|].
  assert (Hh : sizes (map abs_obox (opt_list (sg_styp s) ++ sg_sidxs s)) = blens b1) by (apply sizes_oboxes; assumption).
  rewrite map_app, sizes_app in Hh.
  assert (Ha : sizes (C12Model.opt_list (option_map abs_obox (sg_styp s))) = sizes (map abs_obox (opt_list (sg_styp s))))
    by (destruct (sg_styp s); reflexivity).
  rewrite !sizes_app, blens_app, S2, Ha, sidx_sizes, <- Hh, app_assoc. reflexivity.
Qed.

(* the segments of a file, each encoded with the file's EncOptimize if that asks for optimisation *)
Lemma segs_c12 fopt ss ss' bs : enc_segs fopt ss = (ss', Ok bs) -> forallb aseg_wf ss = true ->
  exists tbs, C12Model.encode_segments (map abs_seg ss') = Ok tbs /\ sizes tbs = blens bs.
Proof.
  apply (seq_c12 _ aseg_wf abs_seg C12Model.encode_segment C12Model.encode_segments); try reflexivity.
  intros a a' b Ha Wa. apply (seg_c12 _ a' b Ha). destruct fopt; exact Wa.
Qed.

Lemma aseg_set_opt_abs s o : aseg_wf (aseg_set_opt s o) = aseg_wf s.
Proof. reflexivity. Qed.

(* ------------------------------------------------------------------ the file in segment mode *)
Theorem file_c12 f f' boxes :
  afile_seg_mode f = true -> afile_encode f = (f', Ok boxes) -> afile_wf f = true ->
  exists tbs, C12Model.encode_file (abs_file f') = Ok tbs /\ sizes tbs = blens boxes.
Proof.
  intros M H W. destruct (afile_wf_parts f W) as (W1 & W2 & W3 & W4).
  destruct (afile_encode_inv f f' boxes H) as [b1 ss' b2 b3 _ E1 E2 E3 -> -> | cs' M' _ _ _]; [|congruence].
  destruct (segs_c12 _ _ _ _ E2 W2) as (t2 & C2 & S2).
  assert (Fr : fl_fragmented f = true) by (unfold afile_seg_mode in M; apply andb_true_iff in M; tauto).
  unfold C12Model.encode_file, C12Model.encode_segment_mode, abs_file.
  cbn [afile_with fl_fragmented fl_init fl_sidxs fl_segs fl_mfra C12Model.f_fragmented C12Model.f_init C12Model.f_sidxs C12Model.f_segs C12Model.f_mfra].
  rewrite Fr, C2.
  assert (Hh : sizes (map abs_obox (init_list f ++ fl_sidxs f)) = blens b1) by (apply sizes_oboxes; assumption).
  assert (Hm : sizes (map abs_obox (opt_list (fl_mfra f))) = blens b3) by (apply sizes_oboxes; assumption).
  unfold init_list in Hh.
  rewrite map_app, sizes_app in Hh.
  assert (Hb : sizes (C12Model.opt_list (option_map abs_obox (fl_mfra f))) = sizes (map abs_obox (opt_list (fl_mfra f))))
    by (destruct (fl_mfra f); reflexivity).
  destruct (fl_init f) as [i|]; cbn [option_map C12Model.encode_init rbind]; eexists; (split; [reflexivity|]);
    rewrite !sizes_app, !blens_app, S2, sidx_sizes, Hb, Hm, <- Hh, <- !app_assoc; reflexivity.
Qed.
