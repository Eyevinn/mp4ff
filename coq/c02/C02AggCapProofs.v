(* C02AggCapProofs.v — EncodeSW into a writer of any capacity: a success is the success of Encode (same state, same
   boxes) and leaves `capacity - bytes written` room; under well-formedness the bytes written are Size(), so every
   capacity >= Size() gives the same outcome, and a success with ANY capacity means exactly Size() bytes. *)
From V.lib Require Import Base.
From V.c05 Require Import C05Model C05FragModel C05CodecModel.
From V.c02 Require Import C02AggModel C02AggSizeProofs C02AggOptProofs C02AggFragProofs C02AggFileProofs C02AggCapModel.

(* the room before a write is the room left plus what was written: stated that way, in both directions, no step
   needs a subtraction or a side condition *)
Lemma sw_box_intro r b room' : r = Ok b -> sw_box (room' + lenN b) r = Ok (b, room').
Proof.
  intros ->. unfold sw_box, sw_put. rewrite (proj2 (N.ltb_ge _ _) (N.le_add_l _ _)), N.add_sub. reflexivity.
Qed.

Lemma sw_box_inv room r b room' : sw_box room r = Ok (b, room') -> r = Ok b /\ room = room' + lenN b.
Proof.
  unfold sw_box, sw_put. destruct r as [x| | |]; try discriminate.
  destruct (room <? lenN x) eqn:E; [discriminate|]. intros [= <- <-]. apply N.ltb_ge in E.
  split; [reflexivity|]. symmetry. apply N.sub_add. exact E.
Qed.

Lemma room_cons room x (bs : list (list N)) : room + lens (x :: bs) = room + lens bs + lenN x.
Proof. rewrite lens_cons, (N.add_comm (lenN x)), N.add_assoc. reflexivity. Qed.

Lemma room_app room (a b : list (list N)) : room + lens (a ++ b) = room + lens b + lens a.
Proof. rewrite lens_app, (N.add_comm (lens a)), N.add_assoc. reflexivity. Qed.

Lemma sw_list_intro {A} (f : A -> res (list N)) l : forall bs room',
  enc_list f l = Ok bs -> sw_list f l (room' + lens bs) = Ok (bs, room').
Proof.
  intros bs room' H. apply enc_list_inv in H. induction H as [|x a t r Ea _ IH]; cbn [sw_list].
  - rewrite lens_nil, N.add_0_r. reflexivity.
  - rewrite room_cons, (sw_box_intro _ a _ Ea), IH. reflexivity.
Qed.

Lemma sw_list_inv {A} (f : A -> res (list N)) l : forall room bs room',
  sw_list f l room = Ok (bs, room') -> enc_list f l = Ok bs /\ room = room' + lens bs.
Proof.
  induction l as [|x t IH]; intros room bs room' H.
  - injection H as <- <-. split; [reflexivity|]. rewrite lens_nil, N.add_0_r. reflexivity.
  - cbn [sw_list] in H. destruct (sw_box room (f x)) as [[a room1]| | |] eqn:Eb; try discriminate.
    destruct (sw_list f t room1) as [[r room2]| | |] eqn:Er; try discriminate. injection H as <- <-.
    destruct (sw_box_inv _ _ _ _ Eb) as [Ea ->]. destruct (IH _ _ _ Er) as [Et ->].
    cbn [enc_list]. rewrite Ea, Et, room_cons. split; reflexivity.
Qed.

(* EncodeSW of a stateful part against its Encode: a success of the one is the success of the other when the boxes fit *)
Record sw_spec {S} (enc : S -> S * res (list (list N))) (encsw : N -> S -> S * res (list (list N) * N)) : Prop := {
  sw_inv : forall room x x' b room', encsw room x = (x', Ok (b, room')) -> enc x = (x', Ok b) /\ room = room' + lens b;
  sw_intro : forall x x' b room', enc x = (x', Ok b) -> encsw (room' + lens b) x = (x', Ok (b, room')) }.

Lemma sw_seq_spec {A} (enc : A -> A * res (list (list N))) (encsw : N -> A -> A * res (list (list N) * N)) :
  sw_spec enc encsw -> sw_spec (enc_seq enc) (fun room l => sw_seq encsw l room).
Proof.
  intros [inv1 intro1]. constructor.
  - intros room l. revert room. induction l as [|a rest IH]; intros room l' bs room' H.
    + injection H as <- <- <-. split; [reflexivity|]. rewrite lens_nil, N.add_0_r. reflexivity.
    + cbn [sw_seq] in H. destruct (encsw room a) as [a' r] eqn:Ea. destruct r as [[b room1]| | |]; try (injection H as _ H; discriminate).
      destruct (sw_seq encsw rest room1) as [rest' r2] eqn:Er. destruct r2 as [[b2 room2]| | |]; try (injection H as _ H; discriminate).
      injection H as <- <- <-. destruct (inv1 _ _ _ _ _ Ea) as [Fa ->]. destruct (IH _ _ _ _ Er) as [Fr ->].
      cbn [enc_seq]. rewrite Fa, Fr, room_app. split; reflexivity.
  - intros l l' bs room' H. apply enc_seq_ok in H. induction H as [|a a' b rest rest' b2 Ea _ IH]; cbn [sw_seq].
    + rewrite lens_nil, N.add_0_r. reflexivity.
    + rewrite room_app, (intro1 a a' b _ Ea), IH. reflexivity.
Qed.

(* the same encoder after a field has been set (EncOptimize handed down) *)
Lemma sw_spec_pre {S} enc encsw (g : S -> S) : sw_spec enc encsw -> sw_spec (fun x => enc (g x)) (fun room x => encsw room (g x)).
Proof. intros [I J]. constructor; [intros room x; apply I|intros x; apply J]. Qed.

Lemma afrag_sw : sw_spec afrag_encode afrag_encode_sw.
Proof.
  assert (R5 : forall room (b1 : list (list N)) b2 b3 b4 b5,
            room + lens (b1 ++ b2 :: b3 ++ b4 :: b5) = room + lens b5 + lenN b4 + lens b3 + lenN b2 + lens b1).
  { intros. rewrite room_app, room_cons, room_app, room_cons. reflexivity. }
  constructor.
  - intros room fr fr' boxes room'. unfold afrag_encode_sw. destruct (af_moof fr) as [m|] eqn:Em; [|discriminate].
    destruct (if af_opt fr then optimize_moof m else Ok m) as [m1| | |] eqn:Eo; try discriminate.
    destruct (af_mdat fr) as [md|] eqn:Ed; [|discriminate].
    destruct (aset_offsets m1 md) as [m2 md2] eqn:Es.
    destruct (sw_list enc_obox (af_pre fr) room) as [[b1 r1]| | |] eqn:E1; try discriminate.
    destruct (sw_box r1 (amoof_enc m2)) as [[b2 r2]| | |] eqn:E2; try discriminate.
    destruct (sw_list enc_obox (af_mid fr) r2) as [[b3 r3]| | |] eqn:E3; try discriminate.
    destruct (amd_enc md2) as [md3 e4] eqn:E4. pose proof (amd_enc_state _ _ _ E4) as ->.
    destruct (sw_box r3 e4) as [[b4 r4]| | |] eqn:E4b; try discriminate.
    destruct (sw_list enc_obox (af_post fr) r4) as [[b5 r5]| | |] eqn:E5; try discriminate.
    intros [= <- <- <-].
    destruct (sw_list_inv _ _ _ _ _ E1) as [F1 ->]. destruct (sw_box_inv _ _ _ _ E2) as [F2 ->].
    destruct (sw_list_inv _ _ _ _ _ E3) as [F3 ->]. destruct (sw_box_inv _ _ _ _ E4b) as [-> ->].
    destruct (sw_list_inv _ _ _ _ _ E5) as [F5 ->].
    split; [|symmetry; apply R5].
    apply afrag_encode_ok. apply (EncFacts fr _ _ m m1 md m2 md2 b1 b2 b3 b4 b5); auto.
  - intros fr fr' boxes room' H.
    destruct (afrag_encode_inv fr fr' boxes H) as [m m1 md m2 md2 b1 b2 b3 b4 b5 Em Eo Ed Es E1 E2 E3 E4 E5 -> ->].
    unfold afrag_encode_sw. cbn [app]. rewrite Em, Eo, Ed, Es, R5, (sw_list_intro _ _ _ _ E1), (sw_box_intro _ _ _ E2),
      (sw_list_intro _ _ _ _ E3), E4, (sw_box_intro _ b4 _ eq_refl), (sw_list_intro _ _ _ _ E5). reflexivity.
Qed.

Lemma aseg_sw : sw_spec aseg_encode aseg_encode_sw.
Proof.
  constructor.
  - intros room s s' boxes room'. unfold aseg_encode_sw.
    destruct (sw_list enc_obox _ room) as [[b1 r1]| | |] eqn:E1; try discriminate.
    destruct (sw_frags (sg_opt s) (sg_frags s) r1) as [fs' r] eqn:E2. destruct r as [[b2 r2]| | |]; try discriminate.
    intros [= <- <- <-]. destruct (sw_list_inv _ _ _ _ _ E1) as [F1 ->].
    destruct (sw_inv _ _ (sw_seq_spec _ _ (sw_spec_pre _ _ (fun f => af_set_opt f (sg_opt s)) afrag_sw)) _ _ _ _ _ E2) as [F2 ->].
    unfold aseg_encode, enc_frags. rewrite F1, F2, room_app. split; reflexivity.
  - intros s s' boxes room' H. destruct (aseg_encode_inv s s' boxes H) as (b1 & fs' & b2 & E1 & E2 & -> & ->).
    unfold aseg_encode_sw, sw_frags. rewrite room_app, (sw_list_intro _ _ _ _ E1).
    rewrite (sw_intro _ _ (sw_seq_spec _ _ (sw_spec_pre _ _ (fun f => af_set_opt f (sg_opt s)) afrag_sw)) _ _ _ _ E2). reflexivity.
Qed.

Lemma ainit_sw : sw_spec (fun i => (i, ainit_encode i)) (fun room i => (i, ainit_encode_sw room i)).
Proof.
  constructor.
  - intros room i i' b room' [= <- H]. destruct (sw_list_inv _ _ _ _ _ H) as [F R]. unfold ainit_encode. rewrite F. split; [reflexivity|exact R].
  - intros i i' b room' [= <- H]. unfold ainit_encode_sw. rewrite (sw_list_intro _ _ _ _ H). reflexivity.
Qed.

Lemma fc_encode_sw_eq room c : fc_encode_sw room c =
  (fc_touch c, match sw_box room (fc_bytes c) with Ok (b, r) => Ok ([b], r) | Panic => Panic | _ => Err end).
Proof. destruct c; reflexivity. Qed.

Lemma fc_sw : sw_spec fc_encode fc_encode_sw.
Proof.
  constructor.
  - intros room c c' b room'. rewrite fc_encode_sw_eq, fc_encode_eq.
    destruct (sw_box room (fc_bytes c)) as [[x r]| | |] eqn:E; try discriminate.
    intros [= <- <- <-]. destruct (sw_box_inv _ _ _ _ E) as [-> R]. rewrite lens_one. split; [reflexivity|exact R].
  - intros c c' b room' H. destruct (fc_encode_inv c c' b H) as (-> & x & Ex & ->).
    rewrite lens_one, fc_encode_sw_eq, (sw_box_intro _ x _ Ex). reflexivity.
Qed.

Lemma afile_sw : sw_spec afile_encode afile_encode_sw.
Proof.
  pose proof (fun fopt : bool => sw_seq_spec _ _ (sw_spec_pre _ _ (fun s => if fopt then aseg_set_opt s true else s) aseg_sw)) as Segs.
  pose proof (sw_seq_spec _ _ fc_sw) as Kids.
  constructor.
  - intros room f f' boxes room'. unfold afile_encode, afile_encode_sw.
    destruct (fl_fragmented f && negb (fl_mode f =? 0) && negb (fl_mode f =? 1)); [discriminate|].
    destruct (afile_seg_mode f).
    + destruct (sw_list enc_obox _ room) as [[b1 r1]| | |] eqn:E1; try discriminate.
      destruct (sw_segs (fl_opt f) (fl_segs f) r1) as [ss' r] eqn:E2. destruct r as [[b2 r2]| | |]; try discriminate.
      destruct (sw_list enc_obox (opt_list (fl_mfra f)) r2) as [[b3 r3]| | |] eqn:E3; try discriminate.
      intros [= <- <- <-]. destruct (sw_list_inv _ _ _ _ _ E1) as [F1 ->]. destruct (sw_list_inv _ _ _ _ _ E3) as [F3 ->].
      destruct (sw_inv _ _ (Segs (fl_opt f)) _ _ _ _ _ E2) as [F2 ->].
      unfold enc_segs. rewrite F1, F2, F3, !room_app. split; reflexivity.
    + destruct (sw_seq fc_encode_sw (fl_children f) room) as [cs' r] eqn:E. intros [= <- ->].
      destruct (sw_inv _ _ Kids _ _ _ _ _ E) as [F R]. unfold enc_children. rewrite F. split; [reflexivity|exact R].
  - intros f f' boxes room'. unfold afile_encode, afile_encode_sw.
    destruct (fl_fragmented f && negb (fl_mode f =? 0) && negb (fl_mode f =? 1)); [discriminate|].
    destruct (afile_seg_mode f).
    + destruct (enc_list enc_obox _) as [b1| | |] eqn:E1; try discriminate.
      destruct (enc_segs (fl_opt f) (fl_segs f)) as [ss' r] eqn:E2. destruct r as [b2| | |]; try discriminate.
      destruct (enc_list enc_obox (opt_list (fl_mfra f))) as [b3| | |] eqn:E3; try discriminate.
      intros [= <- <-]. unfold sw_segs.
      rewrite !room_app, (sw_list_intro _ _ _ _ E1), (sw_intro _ _ (Segs (fl_opt f)) _ _ _ _ E2), (sw_list_intro _ _ _ _ E3). reflexivity.
    + destruct (enc_children (fl_children f)) as [cs' r] eqn:E. intros [= <- ->].
      rewrite (sw_intro _ _ Kids _ _ _ _ E). reflexivity.
Qed.

(* A success of EncodeSW with ANY capacity: it is the success of Encode, exactly Size() bytes were written (Size()
   taken afterwards), the room left is capacity - Size(), and EVERY capacity >= Size() - the exact one included -
   gives the same state and the same boxes. *)
Definition cap_independent {S} (size : S -> N) (enc : S -> S * res (list (list N)))
  (encsw : N -> S -> S * res (list (list N) * N)) (x : S) : Prop :=
  forall room x' boxes rest, encsw room x = (x', Ok (boxes, rest)) ->
    enc x = (x', Ok boxes) /\ lens boxes = size x' /\ room = rest + size x' /\
    forall room2, size x' <= room2 -> encsw room2 x = (x', Ok (boxes, room2 - size x')).

(* EncodeSW succeeds exactly when Encode does and the boxes fit, and then the boxes are Size() long: all there is to it *)
Section Capacity.
  Context {S : Type} (size : S -> N) (wf : S -> bool) (enc : S -> S * res (list (list N)))
    (encsw : N -> S -> S * res (list (list N) * N)).
  Hypothesis spec : sw_spec enc encsw.
  Hypothesis enc_size : forall x x' b, enc x = (x', Ok b) -> wf x = true -> lens b = size x'.

  Lemma capacity_complete x x' boxes room :
    enc x = (x', Ok boxes) -> wf x = true -> size x' <= room -> encsw room x = (x', Ok (boxes, room - size x')).
  Proof.
    intros H W L. rewrite <- (N.sub_add _ _ L) at 1. rewrite <- (enc_size x x' boxes H W). apply (sw_intro _ _ spec), H.
  Qed.

  Lemma capacity_independent x : wf x = true -> cap_independent size enc encsw x.
  Proof.
    intros W room x' boxes rest H. destruct (sw_inv _ _ spec _ _ _ _ _ H) as [He Hr].
    pose proof (enc_size x x' boxes He W) as L. rewrite L in Hr. repeat split; try assumption.
    intros room2 H2. exact (capacity_complete x x' boxes room2 He W H2).
  Qed.
End Capacity.

Theorem fragment_capacity fr : afrag_wf fr = true -> cap_independent afrag_size afrag_encode afrag_encode_sw fr.
Proof. apply (capacity_independent afrag_size afrag_wf); [exact afrag_sw|apply frag_sound]. Qed.

Theorem segment_capacity s : aseg_wf s = true -> cap_independent aseg_size aseg_encode aseg_encode_sw s.
Proof. apply (capacity_independent aseg_size aseg_wf); [exact aseg_sw|apply seg_sound]. Qed.

Theorem init_capacity i : obs_wf i = true ->
  cap_independent ainit_size (fun i => (i, ainit_encode i)) (fun room i => (i, ainit_encode_sw room i)) i.
Proof.
  apply (capacity_independent ainit_size obs_wf); [exact ainit_sw|].
  intros x x' b [= <- H] W. apply (init_size x b H W).
Qed.

Theorem file_capacity f : afile_wf f = true -> cap_independent afile_size afile_encode afile_encode_sw f.
Proof. apply (capacity_independent afile_size afile_wf); [exact afile_sw|apply file_sound]. Qed.

(* and the other way round: when Encode succeeds, EncodeSW into a writer of Size() bytes or more succeeds *)
Theorem fragment_capacity_complete fr fr' boxes room :
  afrag_encode fr = (fr', Ok boxes) -> afrag_wf fr = true -> afrag_size fr' <= room ->
  afrag_encode_sw room fr = (fr', Ok (boxes, room - afrag_size fr')).
Proof. apply (capacity_complete afrag_size afrag_wf); [exact afrag_sw|apply frag_sound]. Qed.

Theorem file_capacity_complete f f' boxes room :
  afile_encode f = (f', Ok boxes) -> afile_wf f = true -> afile_size f' <= room ->
  afile_encode_sw room f = (f', Ok (boxes, room - afile_size f')).
Proof. apply (capacity_complete afile_size afile_wf); [exact afile_sw|apply file_sound]. Qed.

(* the statement is about the encoders, not a tautology of the model: for an opaque box that writes more than its
   Size() (what MetaBox.EncodeSW did for a QuickTime meta atom before repo commit 35ed2e5: 4 bytes more) the
   exact capacity fails and a roomy one succeeds with more than Size() bytes *)
Definition ob_over : obox := mkObox [109; 101; 116; 97] 12 ([0; 0; 0; 12; 109; 101; 116; 97] ++ [0; 0; 0; 0; 1; 2; 3; 4]) false.

Lemma capacity_refuted :
  ob_wf ob_over = false /\ ainit_size [ob_over] = 12 /\
  ainit_encode_sw 12 [ob_over] = Err /\
  exists boxes rest, ainit_encode_sw (12 + 64) [ob_over] = Ok (boxes, rest) /\ lens boxes = 16 /\ rest = 60.
Proof. split; [reflexivity|]. split; [reflexivity|]. split; [reflexivity|]. eexists; eexists. split; [reflexivity|]. split; reflexivity. Qed.
