(* C02AggFileProofs.v — MediaSegment, InitSegment and File: bytes written = Size() afterwards (= beforehand
   without optimisation), the output is tiled, a second Encode changes nothing.  One notion (`enc_sound`) says this
   of an encoder; it passes from the parts to a loop over them and to an encoder that first sets EncOptimize. *)
From V.lib Require Import Base.
From V.c05 Require Import C05Model C05FragModel C05CodecModel.
From V.c02 Require Import C02AggModel C02AggSizeProofs C02AggOptProofs C02AggFragProofs.

(* What the theorems say of the Encode of a fragment, a segment, a file or a child of a file, as one notion.  When it
   succeeds on a well-formed part: the boxes written are well-formed and together as long as Size() says afterwards,
   and the part stays well-formed; Size() was the same beforehand if the part is `quiet` (no trun optimisation will
   be done); a second Encode changes nothing and writes the same boxes, and Size() / Info change nothing any more. *)
Record enc_sound {A} (enc : A -> A * res (list (list N))) (size : A -> N) (wf quiet : A -> bool) (touch : A -> A) : Prop := {
  es_ok : forall a a' b, enc a = (a', Ok b) -> wf a = true -> lens b = size a' /\ all_ok b /\ wf a' = true;
  es_quiet : forall a a' b, enc a = (a', Ok b) -> wf a = true -> quiet a = true -> size a = size a';
  es_settles : forall a a' b, enc a = (a', Ok b) -> enc a' = (a', Ok b) /\ touch a' = a' }.

(* a successful loop over stateful parts, part by part *)
Inductive seq_ok {A} (enc : A -> A * res (list (list N))) : list A -> list A -> list (list N) -> Prop :=
| seq_ok_nil : seq_ok enc [] [] []
| seq_ok_cons a a' b rest rest' b2 :
    enc a = (a', Ok b) -> seq_ok enc rest rest' b2 -> seq_ok enc (a :: rest) (a' :: rest') (b ++ b2).

Lemma enc_seq_ok {A} (enc : A -> A * res (list (list N))) l l' bs : enc_seq enc l = (l', Ok bs) <-> seq_ok enc l l' bs.
Proof.
  split.
  - revert l' bs. induction l as [|a rest IH]; intros l' bs; cbn [enc_seq]; [intros [= <- <-]; constructor|].
    destruct (enc a) as [a' r] eqn:Ea. destruct r as [b| | |]; try discriminate.
    destruct (enc_seq enc rest) as [rest' r2]. destruct r2 as [b2| | |]; try discriminate.
    intros [= <- <-]. constructor; [exact Ea|apply IH; reflexivity].
  - induction 1 as [|a a' b rest rest' b2 Ea _ IH]; cbn [enc_seq]; [reflexivity|]. rewrite Ea, IH. reflexivity.
Qed.

Section Sound.
  Context {A : Type} (enc : A -> A * res (list (list N))) (size : A -> N) (wf quiet : A -> bool) (touch : A -> A).
  Hypothesis sound : enc_sound enc size wf quiet touch.

  (* the form the theorems have *)
  Lemma sound_size a a' boxes : enc a = (a', Ok boxes) -> wf a = true ->
    lenN (concat boxes) = size a' /\ lens boxes = size a' /\ all_ok boxes /\
    (quiet a = true -> size a = size a') /\ wf a' = true.
  Proof.
    intros H W. destruct (es_ok _ _ _ _ _ sound a a' boxes H W) as (L & B & W').
    rewrite lens_concat. repeat split; try assumption. exact (es_quiet _ _ _ _ _ sound a a' boxes H W).
  Qed.

  (* `for _, x := range xs { err := x.Encode(w) ... }` *)
  Lemma enc_seq_sound : enc_sound (enc_seq enc) (fun l => sumN (map size l)) (forallb wf) (forallb quiet) (map touch).
  Proof.
    destruct sound as [Hok Hq Hs]. constructor; intros l l' bs H; apply enc_seq_ok in H.
    - induction H as [|a a' b rest rest' b2 Ea _ IH]; intros W; [repeat split; constructor|].
      cbn [forallb] in W. apply andb_true_iff in W. destruct W as [Wa Wr].
      destruct (Hok a a' b Ea Wa) as (L & B & W'). destruct (IH Wr) as (L2 & B2 & W2).
      rewrite lens_app. cbn [map sumN forallb]. rewrite L, L2, W', W2. repeat split. apply Forall_app. split; assumption.
    - induction H as [|a a' b rest rest' b2 Ea _ IH]; intros W Q; [reflexivity|].
      cbn [forallb] in W, Q. apply andb_true_iff in W. destruct W as [Wa Wr]. apply andb_true_iff in Q. destruct Q as [Qa Qr].
      cbn [map sumN]. rewrite (Hq a a' b Ea Wa Qa), (IH Wr Qr). reflexivity.
    - induction H as [|a a' b rest rest' b2 Ea _ [E2 T2]]; [split; reflexivity|].
      destruct (Hs a a' b Ea) as [E T]. cbn [enc_seq map]. rewrite E, E2, T, T2. split; reflexivity.
  Qed.

  (* `x.EncOptimize = ...; err := x.Encode(w)`: a field that the theorems do not look at is set first, and stays *)
  Lemma enc_sound_pre (g : A -> A) :
    (forall a, wf (g a) = wf a) -> (forall a, size (g a) = size a) -> (forall a a' b, enc (g a) = (a', Ok b) -> g a' = a') ->
    enc_sound (fun a => enc (g a)) size wf (fun a => quiet (g a)) touch.
  Proof.
    intros Gw Gs Gk. destruct sound as [Hok Hq Hs]. constructor; intros a a' b H.
    - rewrite <- Gw. exact (Hok (g a) a' b H).
    - rewrite <- Gw, <- (Gs a). exact (Hq (g a) a' b H).
    - rewrite (Gk a a' b H). exact (Hs (g a) a' b H).
  Qed.
End Sound.

Lemma forallb_const {A} (b : bool) (l : list A) : b = true -> forallb (fun _ => b) l = true.
Proof. intros ->. induction l; auto. Qed.

Definition aseg_wf (s : aseg) : bool :=
  oall ob_wf (sg_styp s) && obs_wf (sg_sidxs s) && forallb afrag_wf (sg_frags s).

Lemma afrag_set_opt_wf f o : afrag_wf (af_set_opt f o) = afrag_wf f.
Proof. reflexivity. Qed.
Lemma afrag_set_opt_size f o : afrag_size (af_set_opt f o) = afrag_size f.
Proof. reflexivity. Qed.

Lemma afrag_encode_opt fr fr' boxes : afrag_encode fr = (fr', Ok boxes) -> af_opt fr' = af_opt fr.
Proof.
  intros H. destruct (afrag_encode_inv fr fr' boxes H) as [m m1 md m2 md2 b1 b2 b3 b4 b5 Em Eo Ed Es E1 E2 E3 E4 E5 -> ->].
  reflexivity.
Qed.

Lemma af_set_opt_same f : af_set_opt f (af_opt f) = f.
Proof. destruct f; reflexivity. Qed.

Lemma frag_sound : enc_sound afrag_encode afrag_size afrag_wf (fun f => negb (af_opt f)) afrag_touch.
Proof.
  constructor; intros fr fr' b H.
  - intros W. destruct (fragment_size fr fr' b H W) as (_ & L & B & _ & W'). repeat split; assumption.
  - intros W Q. destruct (fragment_size fr fr' b H W) as (_ & _ & _ & S & _). apply S. destruct (af_opt fr); [discriminate|reflexivity].
  - split; [exact (afrag_encode_settles fr fr' b H)|exact (afrag_touch_settled fr fr' b H)].
Qed.

(* the fragments of a segment, each with the segment's EncOptimize *)
Lemma frags_sound opt :
  enc_sound (enc_frags opt) (fun l => sumN (map afrag_size l)) (forallb afrag_wf) (forallb (fun _ => negb opt)) (map afrag_touch).
Proof.
  apply enc_seq_sound. apply (enc_sound_pre _ _ _ _ _ frag_sound (fun f => af_set_opt f opt)); try reflexivity.
  intros a a' b H. pose proof (afrag_encode_opt _ _ _ H) as O. cbn [af_set_opt af_opt] in O. rewrite <- O. apply af_set_opt_same.
Qed.

Lemma aseg_encode_inv s s' boxes : aseg_encode s = (s', Ok boxes) ->
  exists b1 fs' b2, enc_list enc_obox (opt_list (sg_styp s) ++ sg_sidxs s) = Ok b1 /\
    enc_frags (sg_opt s) (sg_frags s) = (fs', Ok b2) /\ s' = aseg_with_frags s fs' /\ boxes = b1 ++ b2.
Proof.
  unfold aseg_encode. destruct (enc_list enc_obox _) as [b1| | |]; try discriminate.
  destruct (enc_frags (sg_opt s) (sg_frags s)) as [fs' r]. destruct r as [b2| | |]; try discriminate.
  intros [= <- <-]. exists b1, fs', b2. repeat split.
Qed.

Lemma aseg_wf_parts s : aseg_wf s = true ->
  obs_wf (opt_list (sg_styp s) ++ sg_sidxs s) = true /\ forallb afrag_wf (sg_frags s) = true.
Proof.
  unfold aseg_wf. intros H. apply andb_true_iff in H. destruct H as [H W3]. apply andb_true_iff in H. destruct H as [W1 W2].
  split; [|exact W3]. unfold obs_wf. rewrite forallb_app. fold (obs_wf (sg_sidxs s)). rewrite W2.
  destruct (sg_styp s); cbn [opt_list forallb oall] in *; rewrite ?W1; reflexivity.
Qed.

Lemma obs_size_head s : obs_size (opt_list (sg_styp s) ++ sg_sidxs s) = osize ob_size (sg_styp s) + obs_size (sg_sidxs s).
Proof. unfold obs_size. rewrite map_app, sumN_app. destruct (sg_styp s); cbn [opt_list map sumN osize]; lia. Qed.

Lemma seg_sound : enc_sound aseg_encode aseg_size aseg_wf (fun s => negb (sg_opt s)) aseg_touch.
Proof.
  constructor; intros s s' boxes H; destruct (aseg_encode_inv s s' boxes H) as (b1 & fs' & b2 & E1 & E2 & -> & ->).
  - intros W. destruct (aseg_wf_parts s W) as [W1 W2]. destruct (enc_oboxes_ok _ _ E1 W1) as [L1 B1].
    destruct (es_ok _ _ _ _ _ (frags_sound (sg_opt s)) _ _ _ E2 W2) as (L2 & B2 & W2').
    rewrite lens_app. unfold aseg_size, aseg_wf in *. cbn [aseg_with_frags sg_styp sg_sidxs sg_frags]. unfold lens at 1.
    rewrite L1, L2, obs_size_head, W2'. apply andb_true_iff in W. destruct W as [-> _].
    repeat split. apply Forall_app. split; assumption.
  - intros W Q. destruct (aseg_wf_parts s W) as [_ W2]. unfold aseg_size. cbn [aseg_with_frags sg_styp sg_sidxs sg_frags]. f_equal.
    apply (es_quiet _ _ _ _ _ (frags_sound (sg_opt s)) _ _ _ E2 W2). apply forallb_const. exact Q.
  - destruct (es_settles _ _ _ _ _ (frags_sound (sg_opt s)) _ _ _ E2) as [S T].
    unfold aseg_encode, aseg_touch. cbn [aseg_with_frags sg_styp sg_sidxs sg_frags sg_opt]. rewrite E1, S, T. split; reflexivity.
Qed.

Theorem segment_size s s' boxes :
  aseg_encode s = (s', Ok boxes) -> aseg_wf s = true ->
  lenN (concat boxes) = aseg_size s' /\ lens boxes = aseg_size s' /\ all_ok boxes /\
  (sg_opt s = false -> aseg_size s = aseg_size s') /\ aseg_wf s' = true.
Proof.
  intros H W. destruct (sound_size _ _ _ _ _ seg_sound s s' boxes H W) as (L & L' & B & Q & W').
  repeat split; try assumption. intros Ho. apply Q. rewrite Ho. reflexivity.
Qed.

Lemma aseg_encode_settles s s' boxes : aseg_encode s = (s', Ok boxes) ->
  aseg_encode s' = (s', Ok boxes) /\ aseg_touch s' = s'.
Proof. exact (es_settles _ _ _ _ _ seg_sound s s' boxes). Qed.

Theorem segment_settles s s' boxes o :
  (o = OpEncode \/ o = OpEncodeSW) -> aseg_step s o = (s', OutBytes boxes) -> aseg_wf s = true ->
  settled aseg_step s' boxes (lenN (concat boxes)).
Proof.
  apply (agg_settles aseg_size aseg_touch aseg_touch aseg_encode aseg_wf).
  - intros s0 s1 b H W. apply (segment_size s0 s1 b H W).
  - intros s0 s1 b H. destruct (aseg_encode_settles s0 s1 b H) as [E T]. repeat split; assumption.
Qed.

Theorem init_size i boxes : ainit_encode i = Ok boxes -> obs_wf i = true ->
  lenN (concat boxes) = ainit_size i /\ lens boxes = ainit_size i /\ all_ok boxes.
Proof.
  unfold ainit_encode, ainit_size. intros H W. destruct (enc_oboxes_ok _ _ H W) as [L B].
  split; [rewrite lens_concat; exact L|]. split; [exact L|exact B].
Qed.

Theorem init_settles i i' boxes o :
  (o = OpEncode \/ o = OpEncodeSW) -> ainit_step i o = (i', OutBytes boxes) -> obs_wf i = true ->
  i' = i /\ settled ainit_step i boxes (lenN (concat boxes)).
Proof.
  intros Ho H W.
  pose proof (agg_step_encode ainit_size (fun i => i) (fun i => i) (fun i => (i, ainit_encode i)) i o i' boxes Ho H) as E.
  injection E as <- E. split; [reflexivity|].
  apply (agg_settles ainit_size (fun i => i) (fun i => i) (fun i => (i, ainit_encode i)) obs_wf) with (s := i) (o := o); try assumption.
  - intros s s' b [= <- Hb] Ws. apply (init_size s b Hb Ws).
  - intros s s' b Hs. injection Hs as <- Hb. rewrite Hb. repeat split.
Qed.

Definition fc_wf (c : fchild) : bool :=
  match c with FcMoof m => amoof_wf m | FcMdat md => md_wf md | FcOther o => ob_wf o end.

Definition afile_wf (f : afile) : bool :=
  oall obs_wf (fl_init f) && obs_wf (fl_sidxs f) && forallb aseg_wf (fl_segs f) && oall ob_wf (fl_mfra f)
  && forallb fc_wf (fl_children f).

(* no trun optimisation will be done: neither the file nor a segment asks for it *)
Definition afile_quiet (f : afile) : bool := negb (fl_opt f) && forallb (fun s => negb (sg_opt s)) (fl_segs f).

(* a child in box-tree mode: the one box it writes, and the state Size() would leave as well *)
Definition fc_bytes (c : fchild) : res (list N) :=
  match c with FcMoof m => amoof_enc m | FcMdat md => snd (amd_enc md) | FcOther o => enc_obox o end.

Lemma fc_encode_eq c : fc_encode c = (fc_touch c, do b <- fc_bytes c; Ok [b]).
Proof. destruct c; reflexivity. Qed.

Lemma fc_encode_inv c c' bs : fc_encode c = (c', Ok bs) -> c' = fc_touch c /\ exists b, fc_bytes c = Ok b /\ bs = [b].
Proof.
  rewrite fc_encode_eq. destruct (fc_bytes c) as [b| | |]; cbn [rbind]; try discriminate.
  intros [= <- <-]. split; [reflexivity|]. exists b. split; reflexivity.
Qed.

Lemma fc_touch_idem c : fc_touch (fc_touch c) = fc_touch c.
Proof. destruct c; cbn [fc_touch]; rewrite ?md_touch_idem; reflexivity. Qed.

Lemma fc_bytes_touch c : fc_bytes (fc_touch c) = fc_bytes c.
Proof. destruct c; cbn [fc_touch fc_bytes]; rewrite ?amd_enc_touch; reflexivity. Qed.

Lemma fc_size_touch c : fc_size (fc_touch c) = fc_size c.
Proof. destruct c; cbn [fc_touch fc_size]; rewrite ?md_size_touch_eq; reflexivity. Qed.

Lemma fc_touch_wf c : fc_wf (fc_touch c) = fc_wf c.
Proof. destruct c; cbn [fc_touch fc_wf]; rewrite ?md_wf_touch; reflexivity. Qed.

Lemma fc_bytes_ok c b : fc_bytes c = Ok b -> fc_wf c = true -> lenN b = fc_size c /\ box_ok b = true.
Proof.
  destruct c as [m|md|o]; cbn [fc_bytes fc_wf fc_size]; intros H W.
  - destruct (amoof_enc_ok m b H W) as [L (kids & _ & T)]. split; [exact L|exact (tiled_box_ok _ _ _ T)].
  - apply (amd_enc_ok md (md_size_touch md) b); [rewrite <- H; reflexivity|exact W].
  - apply enc_obox_ok; assumption.
Qed.

Lemma fc_sound : enc_sound fc_encode fc_size fc_wf (fun _ => true) fc_touch.
Proof.
  constructor; intros c c' bs H; destruct (fc_encode_inv c c' bs H) as (-> & b & Eb & ->).
  - intros W. destruct (fc_bytes_ok c b Eb W) as [L B].
    rewrite lens_one, fc_size_touch, fc_touch_wf. repeat split; [exact L|constructor; [exact B|constructor]|exact W].
  - intros _ _. symmetry. apply fc_size_touch.
  - rewrite fc_encode_eq, fc_bytes_touch, Eb, !fc_touch_idem. split; reflexivity.
Qed.

Lemma aseg_set_opt_wf s o : aseg_wf (aseg_set_opt s o) = aseg_wf s.
Proof. reflexivity. Qed.

(* the segments of a file, each with the file's EncOptimize if that asks for optimisation *)
Lemma segs_sound fopt :
  enc_sound (enc_segs fopt) (fun l => sumN (map aseg_size l)) (forallb aseg_wf)
            (forallb (fun s => negb (sg_opt (if fopt then aseg_set_opt s true else s)))) (map aseg_touch).
Proof.
  apply enc_seq_sound. apply (enc_sound_pre _ _ _ _ _ seg_sound (fun s => if fopt then aseg_set_opt s true else s)).
  - intros s. destruct fopt; reflexivity.
  - intros s. destruct fopt; reflexivity.
  - intros s s' b H. destruct fopt; [|reflexivity].
    destruct (aseg_encode_inv _ _ _ H) as (b1 & fs' & b2 & _ & _ & -> & _). reflexivity.
Qed.

Definition init_list (f : afile) : list obox := match fl_init f with Some i => i | None => [] end.

Inductive file_enc_facts (f f' : afile) (boxes : list (list N)) : Prop :=
| FileSeg (b1 : list (list N)) (ss' : list aseg) (b2 b3 : list (list N))
    (fe_mode : afile_seg_mode f = true)
    (fe_head : enc_list enc_obox (init_list f ++ fl_sidxs f) = Ok b1)
    (fe_segs : enc_segs (fl_opt f) (fl_segs f) = (ss', Ok b2))
    (fe_mfra : enc_list enc_obox (opt_list (fl_mfra f)) = Ok b3)
    (fe_state : f' = afile_with f ss' (fl_children f))
    (fe_boxes : boxes = b1 ++ b2 ++ b3)
| FileTree (cs' : list fchild)
    (fe_mode : afile_seg_mode f = false)
    (fe_known : fl_fragmented f && negb (fl_mode f =? 0) && negb (fl_mode f =? 1) = false)
    (fe_children : enc_children (fl_children f) = (cs', Ok boxes))
    (fe_state : f' = afile_with f (fl_segs f) cs').

Lemma afile_encode_inv f f' boxes : afile_encode f = (f', Ok boxes) -> file_enc_facts f f' boxes.
Proof.
  unfold afile_encode. destruct (fl_fragmented f && negb (fl_mode f =? 0) && negb (fl_mode f =? 1)) eqn:K; [discriminate|].
  destruct (afile_seg_mode f) eqn:M.
  - fold (init_list f). destruct (enc_list enc_obox (init_list f ++ fl_sidxs f)) as [b1| | |] eqn:E1; try discriminate.
    destruct (enc_segs (fl_opt f) (fl_segs f)) as [ss' r] eqn:E2. destruct r as [b2| | |]; try discriminate.
    destruct (enc_list enc_obox (opt_list (fl_mfra f))) as [b3| | |] eqn:E3; try discriminate.
    intros [= <- <-]. exact (FileSeg f _ _ b1 ss' b2 b3 M E1 E2 E3 eq_refl eq_refl).
  - destruct (enc_children (fl_children f)) as [cs' r] eqn:E. intros [= <- ->].
    exact (FileTree f _ _ cs' M K E eq_refl).
Qed.

Lemma afile_wf_split f : afile_wf f = true ->
  oall obs_wf (fl_init f) = true /\ obs_wf (fl_sidxs f) = true /\ forallb aseg_wf (fl_segs f) = true /\
  oall ob_wf (fl_mfra f) = true /\ forallb fc_wf (fl_children f) = true.
Proof.
  unfold afile_wf. intros H. apply andb_true_iff in H. destruct H as [H P5]. apply andb_true_iff in H. destruct H as [H P4].
  apply andb_true_iff in H. destruct H as [H P3]. apply andb_true_iff in H. destruct H as [P1 P2]. repeat split; assumption.
Qed.

Lemma afile_wf_with f ss cs : afile_wf (afile_with f ss cs) =
  oall obs_wf (fl_init f) && obs_wf (fl_sidxs f) && forallb aseg_wf ss && oall ob_wf (fl_mfra f) && forallb fc_wf cs.
Proof. reflexivity. Qed.

Lemma afile_wf_parts f : afile_wf f = true ->
  obs_wf (init_list f ++ fl_sidxs f) = true /\ forallb aseg_wf (fl_segs f) = true /\
  obs_wf (opt_list (fl_mfra f)) = true /\ forallb fc_wf (fl_children f) = true.
Proof.
  intros H. destruct (afile_wf_split f H) as (P1 & P2 & P3 & P4 & P5). repeat split; try assumption.
  - unfold obs_wf, init_list in *. rewrite forallb_app, P2. destruct (fl_init f); cbn [oall] in P1; rewrite ?P1; reflexivity.
  - destruct (fl_mfra f); cbn [opt_list obs_wf forallb oall] in *; rewrite ?P4; reflexivity.
Qed.

Lemma obs_size_file_head f :
  obs_size (init_list f ++ fl_sidxs f) = osize ainit_size (fl_init f) + obs_size (fl_sidxs f).
Proof. unfold obs_size, init_list, ainit_size, obs_size. rewrite map_app, sumN_app. destruct (fl_init f); cbn [osize map sumN]; lia. Qed.

Lemma obs_size_mfra f : obs_size (opt_list (fl_mfra f)) = osize ob_size (fl_mfra f).
Proof. unfold obs_size. destruct (fl_mfra f); cbn [opt_list map sumN osize]; lia. Qed.

Lemma afile_seg_mode_with f ss cs : afile_seg_mode (afile_with f ss cs) = afile_seg_mode f.
Proof. reflexivity. Qed.

Lemma file_sound : enc_sound afile_encode afile_size afile_wf afile_quiet afile_touch.
Proof.
  constructor; intros f f' boxes H;
    destruct (afile_encode_inv f f' boxes H) as [b1 ss' b2 b3 M E1 E2 E3 -> -> | cs' M K E ->];
    unfold afile_size, afile_touch; rewrite ?afile_seg_mode_with, M; cbn [afile_with fl_init fl_sidxs fl_segs fl_mfra fl_children].
  - intros W. destruct (afile_wf_parts f W) as (W1 & W2 & W3 & _). destruct (afile_wf_split f W) as (P1 & P2 & _ & P4 & P5).
    destruct (enc_oboxes_ok _ _ E1 W1) as [L1 B1]. destruct (enc_oboxes_ok _ _ E3 W3) as [L3 B3].
    destruct (es_ok _ _ _ _ _ (segs_sound (fl_opt f)) _ _ _ E2 W2) as (L2 & B2 & W2').
    rewrite !lens_app, afile_wf_with, P1, P2, W2', P4, P5. unfold lens at 1 3.
    rewrite L1, L3, L2, obs_size_file_head, obs_size_mfra. repeat split; [lia|]. repeat (apply Forall_app; split); assumption.
  - intros W. destruct (afile_wf_split f W) as (P1 & P2 & P3 & P4 & P5).
    destruct (es_ok _ _ _ _ _ (enc_seq_sound _ _ _ _ _ fc_sound) _ _ _ E P5) as (L & B & W').
    rewrite afile_wf_with, P1, P2, P3, P4, W'. repeat split; assumption.
  - intros W Q. destruct (afile_wf_parts f W) as (_ & W2 & _). apply andb_true_iff in Q. destruct Q as [Q1 Q2]. f_equal. f_equal.
    apply (es_quiet _ _ _ _ _ (segs_sound (fl_opt f)) _ _ _ E2 W2). destruct (fl_opt f); [discriminate|exact Q2].
  - intros W _. destruct (afile_wf_split f W) as (_ & _ & _ & _ & P5).
    apply (es_quiet _ _ _ _ _ (enc_seq_sound _ _ _ _ _ fc_sound) _ _ _ E P5). apply forallb_const. reflexivity.
  - destruct (es_settles _ _ _ _ _ (segs_sound (fl_opt f)) _ _ _ E2) as [S T].
    assert (K : fl_fragmented f && negb (fl_mode f =? 0) && negb (fl_mode f =? 1) = false).
    { unfold afile_seg_mode in M. apply andb_true_iff in M. destruct M as [-> ->]. reflexivity. }
    unfold afile_encode. rewrite afile_seg_mode_with, M. unfold afile_with at 3.
    cbn [afile_with fl_fragmented fl_mode fl_opt fl_shared fl_init fl_sidxs fl_segs fl_mfra fl_children].
    rewrite K. fold (init_list f). rewrite E1, S, E3, T. split; reflexivity.
  - destruct (es_settles _ _ _ _ _ (enc_seq_sound _ _ _ _ _ fc_sound) _ _ _ E) as [S T].
    unfold afile_encode, enc_children in *. rewrite afile_seg_mode_with, M. unfold afile_with at 3.
    cbn [afile_with fl_fragmented fl_mode fl_opt fl_shared fl_init fl_sidxs fl_segs fl_mfra fl_children].
    rewrite K, S, T. split; reflexivity.
Qed.

Theorem file_size f f' boxes :
  afile_encode f = (f', Ok boxes) -> afile_wf f = true ->
  lenN (concat boxes) = afile_size f' /\ lens boxes = afile_size f' /\ all_ok boxes /\
  (afile_quiet f = true -> afile_size f = afile_size f') /\ afile_wf f' = true.
Proof. exact (sound_size _ _ _ _ _ file_sound f f' boxes). Qed.

(* File.Info walks f.Children: the boxes Size() walks, or - segment mode, boxes not shared - none that has state *)
Lemma afile_info_cases f : afile_info f = afile_touch f \/ afile_info f = f.
Proof. unfold afile_info, afile_touch. destruct (afile_seg_mode f); [destruct (fl_shared f)|]; auto. Qed.

Lemma afile_encode_settles f f' boxes : afile_encode f = (f', Ok boxes) ->
  afile_encode f' = (f', Ok boxes) /\ afile_touch f' = f' /\ afile_info f' = f'.
Proof.
  intros H. destruct (es_settles _ _ _ _ _ file_sound f f' boxes H) as [E T]. repeat split; try assumption.
  destruct (afile_info_cases f') as [-> | ->]; [exact T|reflexivity].
Qed.

Theorem file_settles f f' boxes o :
  (o = OpEncode \/ o = OpEncodeSW) -> afile_step f o = (f', OutBytes boxes) -> afile_wf f = true ->
  settled afile_step f' boxes (lenN (concat boxes)).
Proof.
  apply (agg_settles afile_size afile_touch afile_info afile_encode afile_wf).
  - intros s s' b H W. apply (file_size s s' b H W).
  - exact afile_encode_settles.
Qed.
