(* C02AggC05Proofs.v — the link to C05's SetTrunDataOffsets: on the fragments of C05FragModel (children tfhd, tfdt,
   truns; no other boxes) whose write order numbers are pairwise different - what the Add* operations make -
   this model's aset_offsets (table keyed by position, stable sort) computes exactly C05FragModel.set_offsets
   (table keyed by write order number).  C05's theorems about the data offsets therefore speak about this model. *)
From V.lib Require Import Base.
From Coq Require Import Permutation.
From V.c05 Require Import C05Model C05FragModel C05CodecModel.
From V.c02 Require Import C02AggModel C02AggSizeProofs C02AggOptProofs.

Lemma insert_ix_snd x l : map snd (insert_ix x l) = insert_won (snd x) (map snd l).
Proof.
  induction l as [|y t IH]; [reflexivity|]. cbn [insert_ix map insert_won].
  destruct (tr_won (snd x) <=? tr_won (snd y)); cbn [map]; [reflexivity|]. rewrite IH. reflexivity.
Qed.

Lemma sort_ix_snd l : map snd (sort_ix l) = sort_won (map snd l).
Proof.
  induction l as [|x t IH]; [reflexivity|]. unfold sort_ix, sort_won in *. cbn [fold_right map].
  rewrite insert_ix_snd, IH. reflexivity.
Qed.

Lemma tag_from_snd l : forall k, map snd (tag_from k l) = l.
Proof. induction l as [|r t IH]; intros k; [reflexivity|]. cbn [tag_from map snd]. rewrite IH. reflexivity. Qed.

Lemma insert_ix_perm x l : Permutation (insert_ix x l) (x :: l).
Proof.
  induction l as [|y t IH]; [apply Permutation_refl|]. cbn [insert_ix]. destruct (tr_won (snd x) <=? tr_won (snd y)).
  - apply Permutation_refl.
  - eapply Permutation_trans; [apply perm_skip; exact IH|apply perm_swap].
Qed.

Lemma sort_ix_perm l : Permutation (sort_ix l) l.
Proof.
  induction l as [|x t IH]; [apply Permutation_refl|]. unfold sort_ix in *. cbn [fold_right].
  eapply Permutation_trans; [apply insert_ix_perm|apply perm_skip; exact IH].
Qed.

Lemma tag_from_fst_lt l : forall k x, In x (tag_from k l) -> k <= fst x.
Proof.
  induction l as [|r t IH]; intros k x H; [contradiction|]. cbn [tag_from] in H. destruct H as [<-|H]; [cbn [fst]; lia|].
  specialize (IH (k + 1) x H). lia.
Qed.

Lemma tag_from_nodup l : forall k, NoDup (map fst (tag_from k l)).
Proof.
  induction l as [|r t IH]; intros k; [constructor|]. cbn [tag_from map fst]. constructor; [|apply IH].
  intros H. apply in_map_iff in H. destruct H as (x & Hx & Hin). pose proof (tag_from_fst_lt t (k + 1) x Hin). lia.
Qed.

(* looking up by position in the one table = looking up by write order number in the other *)
Lemma lookup_both S : NoDup (map fst S) -> NoDup (map (fun x => tr_won (snd x)) S) ->
  forall b i r d, In (i, r) S ->
  lookup_off (assign_ix S b) i d = lookup_off (assign_offsets (map snd S) b) (tr_won r) d.
Proof.
  induction S as [|[i0 r0] t IH]; intros N1 N2 b i r d Hin; [contradiction|].
  cbn [map fst snd] in N1, N2. inversion N1 as [|? ? Hn1 N1']; subst. inversion N2 as [|? ? Hn2 N2']; subst.
  cbn [assign_ix map snd fst assign_offsets lookup_off]. destruct Hin as [E|Hin].
  - injection E as <- <-. rewrite !N.eqb_refl. reflexivity.
  - assert (E1 : (i0 =? i) = false).
    { apply N.eqb_neq. intros ->. apply Hn1. apply in_map_iff. exists (i, r). split; [reflexivity|exact Hin]. }
    assert (E2 : (tr_won r0 =? tr_won r) = false).
    { apply N.eqb_neq. intros E. apply Hn2. apply in_map_iff. exists (i, r). split; [symmetry; exact E|exact Hin]. }
    rewrite E1, E2. apply IH; assumption.
Qed.

Lemma new_truns_c05 l base : NoDup (map tr_won l) ->
  new_truns l base =
  map (fun r => tr_with_doff r (lookup_off (assign_offsets (sort_won l) base) (tr_won r) (tr_doff r))) l.
Proof.
  intros Hn. unfold new_truns.
  set (T := tag_from 0 l). set (S := sort_ix T).
  assert (PS : Permutation S T) by apply sort_ix_perm.
  assert (N1 : NoDup (map fst S)).
  { eapply Permutation_NoDup; [apply Permutation_map, Permutation_sym, PS|apply tag_from_nodup]. }
  assert (N2 : NoDup (map (fun x => tr_won (snd x)) S)).
  { eapply Permutation_NoDup; [apply Permutation_map, Permutation_sym, PS|].
    replace (map (fun x => tr_won (snd x)) T) with (map tr_won (map snd T)) by (rewrite map_map; reflexivity).
    unfold T. rewrite tag_from_snd. exact Hn. }
  assert (HS : map snd S = sort_won l) by (unfold S, T; rewrite sort_ix_snd, tag_from_snd; reflexivity).
  rewrite <- HS.
  assert (G : forall x, In x T ->
            tr_with_doff (snd x) (lookup_off (assign_ix S base) (fst x) (tr_doff (snd x))) =
            tr_with_doff (snd x) (lookup_off (assign_offsets (map snd S) base) (tr_won (snd x)) (tr_doff (snd x)))).
  { intros [i r] Hin. cbn [fst snd]. f_equal. apply lookup_both; [exact N1|exact N2|].
    eapply Permutation_in; [apply Permutation_sym; exact PS|exact Hin]. }
  rewrite (map_ext_in _ _ T G).
  transitivity (map (fun r => tr_with_doff r (lookup_off (assign_offsets (map snd S) base) (tr_won r) (tr_doff r))) (map snd T)).
  - rewrite map_map. reflexivity.
  - unfold T. rewrite tag_from_snd. reflexivity.
Qed.

Lemma put_of_c05_traf (g : trun -> trun) t rest :
  put_truns_traf (of_c05_traf t) (map g (tf_truns t) ++ rest) =
  (of_c05_traf (mkTraf (tf_hd t) (tf_dt t) (map g (tf_truns t)) (tf_extra t)), rest).
Proof.
  unfold of_c05_traf. cbn [put_truns_traf tf_hd tf_dt tf_truns].
  assert (H : forall l, put_truns_traf (map TcTrun l) (map g l ++ rest) = (map TcTrun (map g l), rest)).
  { induction l as [|r tl IH]; [reflexivity|]. cbn [map app put_truns_traf]. rewrite IH. reflexivity. }
  rewrite H. reflexivity.
Qed.

Lemma put_of_c05_trafs (g : trun -> trun) ts : forall rest,
  put_truns_moof (map (fun t => McTraf (of_c05_traf t)) ts) (map g (all_truns ts) ++ rest) =
  (map (fun t => McTraf (of_c05_traf t)) (map (fun t => mkTraf (tf_hd t) (tf_dt t) (map g (tf_truns t)) (tf_extra t)) ts), rest).
Proof.
  induction ts as [|t tl IH]; intros rest; [reflexivity|]. unfold all_truns. cbn [flat_map map put_truns_moof].
  fold (all_truns tl). rewrite map_app, <- app_assoc, put_of_c05_traf, IH. reflexivity.
Qed.

(* ------------------------------------------------------------------ the link *)
Theorem aset_offsets_c05 seq fr :
  fr_moofx fr = 0 -> Forall (fun t => tf_extra t = 0 /\ td_version (tf_dt t) <= 1) (fr_trafs fr) ->
  NoDup (map tr_won (all_truns (fr_trafs fr))) ->
  aset_offsets (of_c05_moof seq fr) (fr_mdat fr) =
    (of_c05_moof seq (set_offsets fr), fr_mdat (set_offsets fr)).
Proof.
  intros Hx Ht Hn. unfold aset_offsets, set_offsets. rewrite of_c05_truns.
  destruct (negb (existsb (fun r => negb (tr_won r =? 0)) (all_truns (fr_trafs fr))) && (1 <? lenN (all_truns (fr_trafs fr))));
    [reflexivity|].
  rewrite (of_c05_moof_size seq fr Hx Ht).
  rewrite (new_truns_c05 _ _ Hn).
  set (tbl := assign_offsets (sort_won (all_truns (fr_trafs fr))) (moof_size fr + md_header_size (md_size_touch (fr_mdat fr)))).
  unfold of_c05_moof at 1. cbn [put_truns_moof].
  rewrite <- (app_nil_r (map _ (all_truns (fr_trafs fr)))).
  rewrite (put_of_c05_trafs (fun r => tr_with_doff r (lookup_off tbl (tr_won r) (tr_doff r))) (fr_trafs fr) []).
  cbn [fst]. unfold of_c05_moof, fr_with. cbn [fr_trafs fr_mdat]. reflexivity.
Qed.
