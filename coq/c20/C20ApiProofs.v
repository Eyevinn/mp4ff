(* C20ApiProofs.v -- the API footprint table satisfies the hypothesis of schedule independence
   for guarded programs, and violates it for in-place operations on SliceReader-decoded data. *)
From V.lib Require Import Base.
From V.c20 Require Import C20Model C20SchedProofs.

(* Invariants of the aliasing state: every recorded payload location satisfies P.  Two instances: own cells or
   shared inputs (never somebody else's cells or globals), which every program keeps; own cells only, which
   Reader-path programs keep. *)
Definition st_all (P : loc -> Prop) (st : astate) : Prop := forall o l, assoc o st = Some l -> P l.
Definition loc_ok (t : thread) (l : loc) : Prop := own t l = true \/ exists i, l = Input i.
Definition st_ok (t : thread) (st : astate) : Prop := st_all (loc_ok t) st.
Definition st_own (t : thread) (st : astate) : Prop := st_all (fun l => own t l = true) st.

Lemma own_sloc t o : own t (sloc t o) = true.
Proof. unfold sloc. cbn [own]. apply Nat.eqb_refl. Qed.
Lemma own_ownp t o : own t (ownp t o) = true.
Proof. unfold ownp. cbn [own]. apply Nat.eqb_refl. Qed.

Lemma loc_ok_visible t l : loc_ok t l -> own t l || shared_ro l = true.
Proof. intros [H | [i ->]]; [rewrite H; reflexivity | reflexivity]. Qed.

Lemma pl_all (P : loc -> Prop) t st o : P (ownp t o) -> st_all P st -> P (pl t st o).
Proof. intros Hp H. unfold pl. destruct (assoc o st) as [l|] eqn:E; [exact (H o l E) | exact Hp]. Qed.

Lemma pl_ok t st o : st_ok t st -> loc_ok t (pl t st o).
Proof. apply pl_all. left. apply own_ownp. Qed.

Lemma pl_own t st o : st_own t st -> own t (pl t st o) = true.
Proof. apply (pl_all (fun l => own t l = true)). apply own_ownp. Qed.

Lemma src_loc_ok t st s : st_ok t st -> loc_ok t (src_loc t st s).
Proof. intro H. destruct s as [i|o]; cbn [src_loc]; [right; eexists; reflexivity | apply pl_ok; exact H]. Qed.

Lemma st_own_ok t st : st_own t st -> st_ok t st.
Proof. intros H o l E. left. exact (H o l E). Qed.

(* the table only ever records own payload cells, payload locations already recorded, and - DecodeSR - its source *)
Lemma next_all (P : loc -> Prop) t st a :
  (forall d, P (ownp t d)) -> (forall s d, a = ADecodeSR s d -> P (src_loc t st s)) ->
  st_all P st -> st_all P (api_next t st a).
Proof.
  intros Hp Hsr H.
  assert (Hc : forall d l, P l -> st_all P ((d, l) :: st)).
  { intros d l Hl o l'. cbn [assoc]. destruct (Nat.eqb o d); [intros [= <-]; exact Hl | apply H]. }
  destruct a; cbn [api_next]; try exact H; apply Hc; first [apply Hp | apply pl_all; [apply Hp | exact H] | eapply Hsr; reflexivity].
Qed.

Lemma next_ok t st a : st_ok t st -> st_ok t (api_next t st a).
Proof. intro H. apply next_all; [left; apply own_ownp | intros; now apply src_loc_ok | exact H]. Qed.

Lemma next_own t st a : st_own t st -> reader_only_op a = true -> st_own t (api_next t st a).
Proof.
  intros H Hr. apply next_all; [apply own_ownp | | exact H].
  intros [i|o] d ->; [discriminate Hr | now apply pl_own].
Qed.

(* the two halves of locality, read off the table: under the guards every written location is an own cell
   (in any aliasing state); every location read is an own cell, an input or a global *)
Lemma api_writes_own t st a :
  registry_free a = true -> inplace_ok t st a = true -> forallb (own t) (writes (api_op t st a)) = true.
Proof.
  intros Hreg Hin. destruct a; try discriminate Hreg; cbn [inplace_ok] in Hin;
    unfold api_op; cbn [api_fp fst snd aop writes map forallb]; rewrite ?own_sloc, ?own_ownp, ?Hin; reflexivity.
Qed.

Lemma api_reads_visible t st a :
  st_ok t st -> registry_free a = true ->
  forallb (fun l => own t l || shared_ro l) (reads (api_op t st a)) = true.
Proof.
  intros Hst Hreg.
  pose proof (fun o => loc_ok_visible _ _ (pl_ok t st o Hst)) as Hpl.
  destruct a; try discriminate Hreg; try match goal with k : src |- _ => destruct k end;
    unfold api_op; cbn [api_fp key_locs src_loc fst snd aop reads forallb];
    rewrite ?own_sloc, ?Hpl; reflexivity.
Qed.

(* one op of the table is local when the guards hold *)
Lemma api_op_local t st a :
  st_ok t st -> registry_free a = true -> inplace_ok t st a = true -> local t (api_op t st a) = true.
Proof.
  intros Hst Hreg Hin. unfold local. now rewrite api_writes_own, api_reads_visible.
Qed.

Lemma api_op_respects t st a : respects (api_op t st a).
Proof. unfold api_op. apply aop_respects. Qed.

Lemma compile_local t p : forall st,
  st_ok t st -> prog_safe t st p = true ->
  forall o, In o (compile t st p) -> respects o /\ local t o = true.
Proof.
  induction p as [|a r IH]; intros st Hst Hs o Hin; cbn [compile] in Hin; [contradiction|].
  cbn [prog_safe] in Hs. apply andb_true_iff in Hs. destruct Hs as [Hs Hr].
  apply andb_true_iff in Hs. destruct Hs as [Hreg Hip].
  destruct Hin as [<- | Hin].
  - split; [apply api_op_respects | apply api_op_local; assumption].
  - apply (IH (api_next t st a)); [apply next_ok; exact Hst | exact Hr | exact Hin].
Qed.

Lemma reader_only_safe t p : forall st, st_own t st -> reader_only p = true -> prog_safe t st p = true.
Proof.
  induction p as [|a r IH]; intros st Hst Hr; [reflexivity|].
  unfold reader_only in Hr. cbn [forallb] in Hr. apply andb_true_iff in Hr. destruct Hr as [Ha Hr].
  cbn [prog_safe]. rewrite (IH (api_next t st a)); [ | apply next_own; assumption | exact Hr].
  rewrite andb_true_r. apply andb_true_iff. split.
  - destruct a; try reflexivity; discriminate Ha.
  - destruct a; cbn [inplace_ok]; try reflexivity; apply pl_own; exact Hst.
Qed.

Lemma st_own_nil t : st_own t [].
Proof. intros o l E. discriminate E. Qed.

Lemma api_footprints :
  forall (t : thread) (p : list api),
    reader_only p = true \/ prog_safe t [] p = true ->
    forall o, In o (compile t [] p) -> respects o /\ local t o = true.
Proof.
  intros t p H. apply compile_local.
  - apply st_own_ok, st_own_nil.
  - destruct H as [H | H]; [apply reader_only_safe; [apply st_own_nil | exact H] | exact H].
Qed.

Lemma api_schedule_independence :
  forall (progs : thread -> list api) (s : list event) (h0 : heap),
    (forall t, reader_only (progs t) = true \/ prog_safe t [] (progs t) = true) ->
    is_interleaving s (fun t => compile t [] (progs t)) ->
    race_free s /\
    (forall t l, own t l = true -> run_sched s h0 l = run (compile t [] (progs t)) h0 l) /\
    (forall l, shared_ro l = true -> run_sched s h0 l = h0 l).
Proof.
  intros progs s h0 H Hi.
  apply (schedule_independence (fun t => compile t [] (progs t)) s h0); [|exact Hi].
  intros t o Hin. eapply api_footprints; [apply H | exact Hin].
Qed.

Fixpoint alternate (t1 t2 : thread) (p1 p2 : list op) : list event :=
  match p1, p2 with
  | a :: r1, b :: r2 => (t1, a) :: (t2, b) :: alternate t1 t2 r1 r2
  | _, [] => map (fun o => (t1, o)) p1
  | [], _ => map (fun o => (t2, o)) p2
  end.

Definition two_threads (p : list api) (t : thread) : list op :=
  match t with
  | 1%nat => compile 1 [] p
  | 2%nat => compile 2 [] p
  | _ => []
  end.

Definition bad_prog : list api := [ADecodeSR (SIn 0) 0; ADecrypt 0; AEncode 0 1].
Definition bad_sched : list event := alternate 1 2 (compile 1 [] bad_prog) (compile 2 [] bad_prog).
Definition bad_heap : heap := fun l => match l with Input 0 => 1000 | _ => 0 end.

Lemma bad_interleaving : is_interleaving bad_sched (two_threads bad_prog).
Proof. intros [|[|[|t]]]; reflexivity. Qed.

Lemma not_race_free s : race_freeb s = false -> ~ race_free s.
Proof. intros H R. rewrite (race_freeb_sound _ R) in H. discriminate. Qed.

Lemma sr_inplace_refuted :
  exists (p : list api) (s : list event) (h0 : heap),
    forallb registry_free p = true /\
    is_interleaving s (two_threads p) /\
    (exists o, In o (compile 1 [] p) /\ mem (Input 0) (writes o) = true) /\
    ~ race_free s /\
    (exists l, own 1 l = true /\ run_sched s h0 l <> run (compile 1 [] p) h0 l) /\
    run (compile 1 [] p) h0 (Input 0) <> h0 (Input 0).
Proof.
  exists bad_prog, bad_sched, bad_heap.
  split; [reflexivity|]. split; [exact bad_interleaving|]. split.
  { exists (api_op 1 [(0%nat, Input 0)] (ADecrypt 0)). split; [right; left; reflexivity | reflexivity]. }
  split; [apply not_race_free; vm_compute; reflexivity|]. split.
  - exists (ownp 1 1). split; [reflexivity|]. vm_compute. discriminate.
  - vm_compute. discriminate.
Qed.

(* every in-place operation, applied directly or through the sample views, writes the input *)
Definition mutators : list (nat -> api) := [AEncrypt; ADecrypt; AToByteStream; AToNaluSample].

Definition writes_input (i : nat) (ops : list op) : bool :=
  existsb (fun o => mem (Input i) (writes o)) ops.

Lemma sr_inplace_all_mutators :
  forallb (fun m => writes_input 0 (compile 1 [] [ADecodeSR (SIn 0) 0; m 0%nat]) &&
                    writes_input 0 (compile 1 [] [ADecodeSR (SIn 0) 0; ASamples 0 1; m 1%nat]) &&
                    negb (prog_safe 1 [] [ADecodeSR (SIn 0) 0; m 0%nat]) &&
                    (* the same operations after Reader-path decoding stay inside the goroutine *)
                    negb (writes_input 0 (compile 1 [] [ADecode (SIn 0) 0; ASamples 0 1; m 1%nat])))
          mutators = true.
Proof. vm_compute. reflexivity. Qed.

(* an init segment decoded through a SliceReader from a SHARED input may serve for decryption and encryption of
   media the goroutine owns: the table gives such programs no write to any input (so an implementation that
   writes the shared init, e.g. by using tenc.DefaultConstantIV as a scratch IV, contradicts the table) *)
Definition init_sr_prog : list api :=
  [ADecodeSR (SIn 0) 0; ADecryptInit 0 1; ADecode (SIn 1) 2; ADecryptWith 2 (SObj 1); ADecode (SIn 2) 3;
   ADecryptWith 3 (SIn 7); ADecodeSR (SIn 3) 4; AInitProtect 4 5; ADecode (SIn 4) 6; AEncryptWith 6 5].

Lemma init_sr_decrypt_safe :
  prog_safe 1 [] init_sr_prog = true /\
  input_ids (flat_map writes (compile 1 [] init_sr_prog)) = [] /\
  pl 1 (final_state 1 [] init_sr_prog) 1 = Input 0 /\
  (* whereas media decoded through a SliceReader from a shared input is written by the same operations *)
  input_ids (flat_map writes (compile 1 [] [ADecode (SIn 0) 0; ADecryptInit 0 1; ADecodeSR (SIn 1) 2; ADecryptWith 2 (SObj 1)])) = [1%nat].
Proof. vm_compute. repeat split. Qed.

(* the side condition of the property: modifying the registry while another goroutine decodes races *)
Definition reg_progs (t : thread) : list op :=
  match t with
  | 1%nat => compile 1 [] [ASetBoxDecoder]
  | 2%nat => compile 2 [] [ADecode (SIn 0) 0]
  | _ => []
  end.
Definition reg_sched : list event :=
  alternate 1 2 (compile 1 [] [ASetBoxDecoder]) (compile 2 [] [ADecode (SIn 0) 0]).

Lemma registry_write_races : is_interleaving reg_sched reg_progs /\ ~ race_free reg_sched.
Proof.
  split; [intros [|[|[|t]]]; reflexivity | apply not_race_free; vm_compute; reflexivity].
Qed.

(* three goroutines on two shared inputs: Reader decode + in-place decrypt + encode; SR decode +
   info + encode (no in-place op); SR decode of an own buffer + in-place conversion *)
Definition ex_progs (t : thread) : list api :=
  match t with
  | 1%nat => [ADecode (SIn 0) 0; ADecrypt 0; ASamples 0 1; AToByteStream 1; AEncode 0 2]
  | 2%nat => [ADecodeSR (SIn 0) 0; AInfo 0 1; AEncodeSW 0 2; ASamples 0 3]
  | 3%nat => [ADecode (SIn 1) 0; AEncode 0 1; ADecodeSR (SObj 1) 2; AEncrypt 2; ASamples 2 3; AToNaluSample 3]
  | _ => []
  end.

Fixpoint round_robin (fuel : nat) (ps : list (thread * list op)) : list event :=
  match fuel with
  | O => []
  | S f =>
      let heads := flat_map (fun tp => match snd tp with [] => [] | o :: _ => [(fst tp, o)] end) ps in
      match heads with
      | [] => []
      | _ => heads ++ round_robin f (map (fun tp => (fst tp, tl (snd tp))) ps)
      end
  end.

Definition ex_sched : list event :=
  round_robin 10 [(3%nat, compile 3 [] (ex_progs 3)); (1%nat, compile 1 [] (ex_progs 1));
                  (2%nat, compile 2 [] (ex_progs 2))].

Lemma ex_safe : forall t, reader_only (ex_progs t) = true \/ prog_safe t [] (ex_progs t) = true.
Proof. intros [|[|[|[|t]]]]; right; reflexivity. Qed.

Lemma ex_interleaving : is_interleaving ex_sched (fun t => compile t [] (ex_progs t)).
Proof. intros [|[|[|[|t]]]]; reflexivity. Qed.

Lemma ex_nontrivial :
  length ex_sched = 15%nat /\ race_freeb ex_sched = true /\
  run_sched ex_sched bad_heap (ownp 1 2) <> bad_heap (ownp 1 2) /\
  (* thread 2 really holds a view of the shared input, thread 3 of its own buffer *)
  pl 2 (final_state 2 [] (ex_progs 2)) 3 = Input 0 /\ pl 3 (final_state 3 [] (ex_progs 3)) 3 = ownp 3 1.
Proof. repeat split; try (vm_compute; reflexivity). vm_compute. discriminate. Qed.
