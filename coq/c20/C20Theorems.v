(* C20Theorems.v -- the property theorems of C20 and nothing else.  Each is closed by `exact <lemma>`
   and followed by Print Assumptions (audited by ./check on every run).
   What these theorems are NOT: a statement about the Go memory model or the race detector.  They are
   the footprint argument (all interleavings, given footprints), the policy on the package-level
   variables extracted from the sources on every run, and the footprint table of the API operations
   (validated against the code by harness/c20: aliasing observed by pointer range, SHA-256 of the
   shared inputs, the race detector). *)
From V.lib Require Import Base.
From Coq Require Import String.
From V.c20 Require Import C20Model C20Facts C20PkgVars C20Reach C20Alias C20AliasAudit C20SchedProofs C20ApiProofs C20FactsProofs C20ReachProofs C20AliasProofs C20LazyProofs.

(* if every op of goroutine t writes only cells of t and reads only cells of t or shared read-only
   locations, then EVERY interleaving is race-free, gives each goroutine its sequential result and
   leaves globals and inputs unchanged *)
Theorem C20_schedule_independence :
  forall (progs : thread -> list op) (s : list event) (h0 : heap),
    (forall t o, In o (progs t) -> respects o /\ local t o = true) ->
    is_interleaving s progs ->
    race_free s /\
    (forall t l, own t l = true -> run_sched s h0 l = run (progs t) h0 l) /\
    (forall l, shared_ro l = true -> run_sched s h0 l = h0 l).
Proof. exact schedule_independence. Qed.
Print Assumptions C20_schedule_independence.

(* the same at every intermediate point: after any prefix of any schedule a goroutine sees what it
   sees after the corresponding prefix of its own program *)
Theorem C20_prefix_independence :
  forall (s1 s2 : list event) (h0 : heap),
    all_local (s1 ++ s2) ->
    forall t l, own t l = true \/ shared_ro l = true -> run_sched s1 h0 l = run (proj t s1) h0 l.
Proof. exact prefix_independence. Qed.
Print Assumptions C20_prefix_independence.

(* package-level variables of bits avc hevc sei aac av1 mp4, regenerated from /repo on every run:
   all writers are initialisers, init, SetBoxDecoder, RemoveBoxDecoder; escapes are the audited ones;
   no sync / atomic / math/rand import; the three registries the table names exist *)
Theorem C20_pkg_vars_ok :
  forallb var_ok c20_pkg_vars = true /\
  forallb imports_ok c20_imports = true /\
  has_var c20_pkg_vars "mp4" "decoders" && has_var c20_pkg_vars "mp4" "decodersSR" &&
  has_var c20_pkg_vars "mp4" "sgeDecoders" = true.
Proof. exact pkg_vars_ok. Qed.
Print Assumptions C20_pkg_vars_ok.

Theorem C20_pkg_vars_writers :
  forall v u, In v c20_pkg_vars -> In u (v_uses v) -> is_write (u_kind u) = true ->
              In (u_fn u) allowed_writers.
Proof. exact pkg_vars_writers. Qed.
Print Assumptions C20_pkg_vars_writers.

(* call-graph facts regenerated from /repo on every run (C20Reach.v): for every operation of the footprint table,
   every package-level variable reachable from the library functions behind it is known, is never changed outside
   init / the registry mutators, and nothing is changed unless the operation is a registry mutator; the Global cells
   of the hand-written table cover what is reachable; every operation of the table has an entry; the only exported
   functions from which ANY change of a package-level variable is reachable are mp4.SetBoxDecoder and
   mp4.RemoveBoxDecoder (and they change the registries only); every reachable package-level value of reference type
   (map, slice, pointer, chan, interface, struct holding one such as sync.Pool / sync.Once) is one of the audited ones *)
Theorem C20_api_reach_ok :
  forallb (reach_entry_ok c20_pkg_vars) c20_api_reach = true /\
  forallb entry_covered c20_api_reach = true /\
  forallb (fun k => existsb (fun e => kind_eqb k (r_kind e)) c20_api_reach) all_kinds = true /\
  forallb xwriter_ok c20_exported_writers = true /\
  forallb (shared_ok c20_pkg_vars) c20_reachable_shared = true.
Proof. exact api_reach_ok. Qed.
Print Assumptions C20_api_reach_ok.

(* the same unfolded, for every operation with all its arguments, every goroutine and every aliasing state: the
   footprint the table gives the operation contains the cell of every package-level variable the current sources let
   it read or change; what it reads is only ever changed by init / SetBoxDecoder / RemoveBoxDecoder; operations other
   than the registry mutators change no package-level variable *)
Theorem C20_api_reach_covers :
  forall (a : api) (t : thread) (st : astate) (e : reach_entry),
    In e c20_api_reach -> r_kind e = kind_of a ->
    (forall v, In v (r_reads e) ->
       mem (Global (global_idx v)) (reads (api_op t st a)) = true /\
       exists p, find_var c20_pkg_vars v = Some p /\
                 forall u, In u (v_uses p) -> is_write (u_kind u) = true -> In (u_fn u) allowed_writers) /\
    (forall v, In v (r_writes e) -> mem (Global (global_idx v)) (writes (api_op t st a)) = true) /\
    (registry_free a = true -> r_writes e = []).
Proof. exact api_reach_covers. Qed.
Print Assumptions C20_api_reach_covers.

(* the hypotheses are satisfiable: the entry of DecodeFile exists and reaches the Reader registry *)
Example C20_api_reach_instance :
  exists e, In e c20_api_reach /\ r_kind e = kind_of (ADecode (SIn 0) 0) /\
            vname_in ("mp4", "decoders")%string (r_reads e) = true /\ r_writes e = [].
Proof. exact api_reach_instance. Qed.

(* aliasing facts regenerated from /repo on every run (C20Alias.v): the SliceReader methods that return views of the
   buffer, the functions with a SliceReader parameter whose result keeps such views (61 decoders), the exported functions
   returning views of a []byte argument and the exported functions writing bytes reachable from an argument are all in
   the audited lists (C20AliasAudit.v); every audited in-place mutator is an in-place operation of the table, every
   audited append is the table's ATouch *)
Theorem C20_alias_facts_ok :
  forallb (fun s => str_in s audited_view_sources) c20_view_sources = true /\
  forallb (fun k => str_in (fst k) audited_sr_keepers) c20_sr_keepers = true /\
  forallb (fun v => str_in v audited_byte_views) c20_byte_views = true /\
  forallb mutator_audited c20_mutators = true /\
  forallb (fun a => class_ok (snd a)) audited_mutators = true.
Proof. exact alias_facts_ok. Qed.
Print Assumptions C20_alias_facts_ok.

(* for all arguments, goroutines and aliasing states: an in-place operation writes the payload location of its operand and
   inplace_ok is exactly ownership of that location; applied to a payload the goroutine does not own it writes a location
   outside the goroutine (for a SliceReader view: the caller's input, findings F1-F9) *)
Theorem C20_inplace_guard_exact :
  forall a t st, kind_inplace (kind_of a) = true ->
    (exists o, mem (pl t st o) (writes (api_op t st a)) = true /\ inplace_ok t st a = own t (pl t st o)) /\
    (inplace_ok t st a = false -> exists l, own t l = false /\ mem l (writes (api_op t st a)) = true).
Proof. exact (fun a t st H => conj (inplace_kinds_guarded a t st H) (inplace_on_input_writes_it a t st H)). Qed.
Print Assumptions C20_inplace_guard_exact.

Example C20_inplace_guard_instance :
  kind_inplace (kind_of (ADecryptWith 2 (SObj 1))) = true /\
  inplace_ok 1 [(2%nat, Input 4)] (ADecryptWith 2 (SObj 1)) = false /\
  inplace_ok 1 [(2%nat, ownp 1 2)] (ADecryptWith 2 (SObj 1)) = true.
Proof. repeat split. Qed.

(* the lazy-mdat path of mp4/mdat.go (DecodeFile with DecModeLazyMdat, then MdatBox.ReadData through a ReadSeeker of the
   goroutine's own over the shared bytes).  After EVERY program prefix p of every goroutine, for every source (a shared
   input included) and all object ids: both operations satisfy the hypothesis of C20_schedule_independence with no guard,
   write no shared input, the bytes read are the goroutine's own, and every in-place operation of the table applied to them
   is allowed by the guard, local and writes no input.  No hypothesis: st_ok is proved as an invariant of the table. *)
Theorem C20_lazy_path_private :
  forall (t : thread) (p : list api) (s : src) (o d : nat),
    let st := final_state t [] p in
    let st1 := api_next t st (ADecodeLazy s o) in
    let st2 := lazy_st t st s o d in
    local t (api_op t st (ADecodeLazy s o)) = true /\
    local t (api_op t st1 (AReadData o s d)) = true /\
    input_ids (writes (api_op t st (ADecodeLazy s o))) = [] /\
    input_ids (writes (api_op t st1 (AReadData o s d))) = [] /\
    own t (pl t st2 d) = true /\
    (forall a, kind_inplace (kind_of a) = true -> api_target a = d ->
               inplace_ok t st2 a = true /\ local t (api_op t st2 a) = true /\
               input_ids (writes (api_op t st2 a)) = []).
Proof. exact (fun t p s o d => lazy_path_private t _ s o d (final_state_ok t p [] (st_ok_nil t))). Qed.
Print Assumptions C20_lazy_path_private.

(* the other branch of MdatBox.ReadData (mdat in memory: the result is m.Data[a:b:b]): after DecodeFileSR of a shared input
   the bytes read are a view of that input in every state; ReadData itself writes nothing, but every in-place operation on
   its result fails the guard and writes the input (same class as F1-F9) *)
Theorem C20_read_data_in_memory_view :
  forall (t : thread) (st : astate) (i : nat) (s : src) (o d : nat),
    let st2 := api_next t (api_next t st (ADecodeSR (SIn i) o)) (AReadData o s d) in
    pl t st2 d = Input i /\
    input_ids (writes (api_op t (api_next t st (ADecodeSR (SIn i) o)) (AReadData o s d))) = [] /\
    (forall a, kind_inplace (kind_of a) = true -> api_target a = d ->
               inplace_ok t st2 a = false /\ mem (Input i) (writes (api_op t st2 a)) = true).
Proof. exact read_data_in_memory_view. Qed.
Print Assumptions C20_read_data_in_memory_view.

Example C20_lazy_instance :
  pl 2 (final_state 2 [] lazy_ex_prefix) 6 = Input 3 /\
  pl 2 (lazy_st 2 (final_state 2 [] lazy_ex_prefix) (SIn 3) 0 1) 1 = ownp 2 0 /\
  kind_inplace (kind_of (AToByteStream 1)) = true /\ api_target (AToByteStream 1) = 1%nat /\
  prog_safe 2 [] (lazy_ex_prefix ++ [ADecodeLazy (SIn 3) 0; AReadData 0 (SIn 3) 1; AToByteStream 1; ADecryptWith 1 (SIn 7)]) = true /\
  prog_safe 2 [] (lazy_ex_prefix ++ [ADecodeSR (SIn 3) 0; AReadData 0 (SIn 3) 1; AToByteStream 1]) = false /\
  reader_only [ADecodeLazy (SIn 3) 0; AReadData 0 (SIn 3) 1; AToByteStream 1] = true.
Proof. exact lazy_instance. Qed.

(* the footprint table: Reader-path programs, and SliceReader programs whose in-place operations
   only touch payloads the goroutine owns, satisfy the hypothesis of C20_schedule_independence *)
Theorem C20_api_footprints :
  forall (t : thread) (p : list api),
    reader_only p = true \/ prog_safe t [] p = true ->
    forall o, In o (compile t [] p) -> respects o /\ local t o = true.
Proof. exact api_footprints. Qed.
Print Assumptions C20_api_footprints.

Theorem C20_api_schedule_independence :
  forall (progs : thread -> list api) (s : list event) (h0 : heap),
    (forall t, reader_only (progs t) = true \/ prog_safe t [] (progs t) = true) ->
    is_interleaving s (fun t => compile t [] (progs t)) ->
    race_free s /\
    (forall t l, own t l = true -> run_sched s h0 l = run (compile t [] (progs t)) h0 l) /\
    (forall l, shared_ro l = true -> run_sched s h0 l = h0 l).
Proof. exact api_schedule_independence. Qed.
Print Assumptions C20_api_schedule_independence.

(* [DecodeFileSR input; DecryptSegment; Encode] in two goroutines on ONE shared input: a shared input
   is written, the schedule has a race, goroutine 1's output differs from its sequential output, and
   even alone the program changes the caller's input *)
Theorem C20_sr_inplace_refuted :
  exists (p : list api) (s : list event) (h0 : heap),
    forallb registry_free p = true /\
    is_interleaving s (two_threads p) /\
    (exists o, In o (compile 1 [] p) /\ mem (Input 0) (writes o) = true) /\
    ~ race_free s /\
    (exists l, own 1 l = true /\ run_sched s h0 l <> run (compile 1 [] p) h0 l) /\
    run (compile 1 [] p) h0 (Input 0) <> h0 (Input 0).
Proof. exact sr_inplace_refuted. Qed.
Print Assumptions C20_sr_inplace_refuted.

(* likewise EncryptFragment, ConvertSampleToByteStream, ConvertByteStreamToNaluSample, directly or
   through GetFullSamples views; not after Reader-path decoding *)
Theorem C20_sr_inplace_all_mutators :
  forallb (fun m => writes_input 0 (compile 1 [] [ADecodeSR (SIn 0) 0; m 0%nat]) &&
                    writes_input 0 (compile 1 [] [ADecodeSR (SIn 0) 0; ASamples 0 1; m 1%nat]) &&
                    negb (prog_safe 1 [] [ADecodeSR (SIn 0) 0; m 0%nat]) &&
                    negb (writes_input 0 (compile 1 [] [ADecode (SIn 0) 0; ASamples 0 1; m 1%nat])))
          mutators = true.
Proof. exact sr_inplace_all_mutators. Qed.
Print Assumptions C20_sr_inplace_all_mutators.

(* decrypting / encrypting own media with key material taken from a SliceReader-decoded SHARED init segment
   (or from a DecryptInfo shared between goroutines) writes no input according to the table *)
Theorem C20_sr_init_decrypt_safe :
  prog_safe 1 [] init_sr_prog = true /\
  input_ids (flat_map writes (compile 1 [] init_sr_prog)) = [] /\
  pl 1 (final_state 1 [] init_sr_prog) 1 = Input 0 /\
  input_ids (flat_map writes (compile 1 [] [ADecode (SIn 0) 0; ADecryptInit 0 1; ADecodeSR (SIn 1) 2; ADecryptWith 2 (SObj 1)])) = [1%nat].
Proof. exact init_sr_decrypt_safe. Qed.
Print Assumptions C20_sr_init_decrypt_safe.

(* why the property excludes registry modification *)
Theorem C20_registry_write_races : is_interleaving reg_sched reg_progs /\ ~ race_free reg_sched.
Proof. exact registry_write_races. Qed.
Print Assumptions C20_registry_write_races.

(* the hypotheses are satisfiable by a non-trivial instance: three goroutines, 15 events, SliceReader
   views of a shared input and of an own buffer, in-place operations on own payloads *)
Example C20_example_instance :
  (forall t, reader_only (ex_progs t) = true \/ prog_safe t [] (ex_progs t) = true) /\
  is_interleaving ex_sched (fun t => compile t [] (ex_progs t)) /\
  List.length ex_sched = 15%nat /\ race_freeb ex_sched = true /\
  run_sched ex_sched bad_heap (ownp 1 2) <> bad_heap (ownp 1 2) /\
  pl 2 (final_state 2 [] (ex_progs 2)) 3 = Input 0 /\ pl 3 (final_state 3 [] (ex_progs 3)) 3 = ownp 3 1.
Proof. exact (conj ex_safe (conj ex_interleaving ex_nontrivial)). Qed.
