(* C20SchedProofs.v -- schedule independence from footprints (generic part). *)
From V.lib Require Import Base.
From V.c20 Require Import C20Model.

Lemma loc_eqb_eq a b : loc_eqb a b = true <-> a = b.
Proof.
  destruct a, b; cbn [loc_eqb]; rewrite ?andb_true_iff, ?Nat.eqb_eq;
    split; intro H; try discriminate H; try (f_equal; tauto); now inversion H.
Qed.

Lemma loc_eqb_refl a : loc_eqb a a = true.
Proof. apply loc_eqb_eq. reflexivity. Qed.

Lemma mem_In l ls : mem l ls = true <-> In l ls.
Proof.
  unfold mem. rewrite existsb_exists. split.
  - intros [x [Hin Heq]]. apply loc_eqb_eq in Heq. subst. exact Hin.
  - intros Hin. exists l. split; [exact Hin | apply loc_eqb_refl].
Qed.

(* the region a thread may look at *)
Definition visible (t : thread) (l : loc) : bool := own t l || shared_ro l.

Lemma local_writes t o l : local t o = true -> mem l (writes o) = true -> own t l = true.
Proof.
  unfold local. intros H Hm. apply andb_true_iff in H. destruct H as [Hw _].
  rewrite forallb_forall in Hw. apply Hw. apply mem_In. exact Hm.
Qed.

Lemma local_reads t o l : local t o = true -> mem l (reads o) = true -> visible t l = true.
Proof.
  unfold local. intros H Hm. apply andb_true_iff in H. destruct H as [_ Hr].
  rewrite forallb_forall in Hr. apply (Hr l). apply mem_In. exact Hm.
Qed.

Lemma own_not_shared t l : own t l = true -> shared_ro l = false.
Proof. destruct l; cbn [own shared_ro]; intro H; try discriminate; reflexivity. Qed.

(* what one thread owns no other thread can see: the one fact about the regions the argument rests on *)
Lemma own_invisible t1 t2 l : own t1 l = true -> t1 <> t2 -> visible t2 l = false.
Proof.
  intros H Hne. unfold visible. rewrite (own_not_shared _ _ H), orb_false_r.
  destruct l; cbn [own] in *; try discriminate H. apply Nat.eqb_eq in H. subst. now apply Nat.eqb_neq.
Qed.

Lemma own_visible t l : own t l = true -> visible t l = true.
Proof. unfold visible. intros ->. reflexivity. Qed.

(* a local op of thread t1 writes nothing that another thread can see *)
Lemma local_writes_invisible t1 t2 o l :
  local t1 o = true -> t1 <> t2 -> visible t2 l = true -> mem l (writes o) = false.
Proof.
  intros Hloc Hne Hvis. destruct (mem l (writes o)) eqn:Hm; [|reflexivity].
  rewrite (own_invisible t1 t2 l (local_writes _ _ _ Hloc Hm) Hne) in Hvis. discriminate Hvis.
Qed.

(* an op of another thread does not touch what t can see *)
Lemma other_step t1 t o h l :
  respects o -> local t1 o = true -> t1 <> t -> visible t l = true -> step o h l = h l.
Proof. intros [Hframe _] Hloc Hne Hvis. apply Hframe. eapply local_writes_invisible; eassumption. Qed.

(* a local op maps heaps that agree on the visible region to heaps that agree on it *)
Lemma agree_step t o h1 h2 :
  respects o -> local t o = true ->
  (forall l, visible t l = true -> h1 l = h2 l) ->
  forall l, visible t l = true -> step o h1 l = step o h2 l.
Proof.
  intros [Hframe Hdet] Hloc Hag l Hvis.
  destruct (mem l (writes o)) eqn:Hm.
  - apply Hdet; [|exact Hm]. intros l' Hr. apply Hag. eapply local_reads; eassumption.
  - rewrite !Hframe by exact Hm. apply Hag. exact Hvis.
Qed.

Lemma agree_run t p : forall h1 h2,
  (forall o, In o p -> respects o /\ local t o = true) ->
  (forall l, visible t l = true -> h1 l = h2 l) ->
  forall l, visible t l = true -> run p h1 l = run p h2 l.
Proof.
  induction p as [|o r IH]; intros h1 h2 Hall Hag l Hvis; cbn [run].
  - apply Hag. exact Hvis.
  - apply IH; [intros o' Hin; apply Hall; right; exact Hin | | exact Hvis].
    destruct (Hall o (or_introl eq_refl)) as [Hres Hloc].
    apply agree_step; assumption.
Qed.

Definition all_local (s : list event) : Prop :=
  forall e, In e s -> respects (snd e) /\ local (fst e) (snd e) = true.

Lemma proj_In t s o : In o (proj t s) -> In (t, o) s.
Proof.
  unfold proj. intros H. apply in_map_iff in H. destruct H as [[t' o'] [Heq Hin]].
  cbn [snd] in Heq. subst o'. apply filter_In in Hin. destruct Hin as [Hin Ht].
  cbn [fst] in Ht. apply Nat.eqb_eq in Ht. subst t'. exact Hin.
Qed.

(* every thread sees, at every point of every schedule, exactly what it would see running alone *)
Lemma sched_proj s : forall h t l,
  all_local s -> visible t l = true -> run_sched s h l = run (proj t s) h l.
Proof.
  induction s as [|[t1 o] r IH]; intros h t l Hall Hvis.
  - reflexivity.
  - assert (Hall' : all_local r) by (intros e Hin; apply Hall; right; exact Hin).
    destruct (Hall (t1, o) (or_introl eq_refl)) as [Hres Hloc]. cbn [fst snd] in Hres, Hloc.
    unfold run_sched. cbn [map snd run]. fold (run_sched r (step o h)).
    rewrite (IH (step o h) t l Hall' Hvis).
    unfold proj. cbn [filter fst]. destruct (Nat.eqb t1 t) eqn:Ht.
    + reflexivity.
    + fold (proj t r). apply Nat.eqb_neq in Ht.
      apply agree_run with (t := t); [ | | exact Hvis].
      * intros o' Hin. apply proj_In in Hin. apply (Hall' (t, o') Hin).
      * intros l' Hv'. eapply other_step; eassumption.
Qed.

Lemma sched_shared_unchanged s : forall h l,
  all_local s -> shared_ro l = true -> run_sched s h l = h l.
Proof.
  induction s as [|[t1 o] r IH]; intros h l Hall Hsh.
  - reflexivity.
  - assert (Hall' : all_local r) by (intros e Hin; apply Hall; right; exact Hin).
    destruct (Hall (t1, o) (or_introl eq_refl)) as [[Hframe _] Hloc]. cbn [fst snd] in Hframe, Hloc.
    unfold run_sched. cbn [map snd run]. fold (run_sched r (step o h)).
    rewrite (IH _ _ Hall' Hsh). apply Hframe.
    destruct (mem l (writes o)) eqn:Hm; [|reflexivity].
    pose proof (local_writes _ _ _ Hloc Hm) as Hown.
    rewrite (own_not_shared _ _ Hown) in Hsh. discriminate.
Qed.

(* two local ops of different threads do not conflict: what either writes the other cannot see *)
Lemma local_no_conflict t1 t2 o1 o2 :
  local t1 o1 = true -> local t2 o2 = true -> t1 <> t2 -> conflictb o1 o2 = false.
Proof.
  intros H1 H2 Hne. unfold conflictb. apply orb_false_iff. split; apply not_true_is_false; intro H;
    apply existsb_exists in H; destruct H as [l [Hin Hc]]; apply mem_In in Hin.
  - rewrite (local_writes_invisible t2 t1 o2 l H2 (not_eq_sym Hne)) in Hc.
    + rewrite orb_false_r in Hc. pose proof (local_reads _ _ _ H2 Hc) as Hv.
      rewrite (own_invisible t1 t2 l (local_writes _ _ _ H1 Hin) Hne) in Hv. discriminate.
    + apply own_visible. eapply local_writes; eassumption.
  - pose proof (local_reads _ _ _ H1 Hc) as Hv.
    rewrite (own_invisible t2 t1 l (local_writes _ _ _ H2 Hin) (not_eq_sym Hne)) in Hv. discriminate.
Qed.

Lemma sched_race_free s : all_local s -> race_free s.
Proof.
  intros Hall i j e1 e2 _ H1 H2 Hne.
  apply nth_error_In in H1. apply nth_error_In in H2.
  destruct (Hall _ H1) as [_ L1]. destruct (Hall _ H2) as [_ L2].
  eapply local_no_conflict; eassumption.
Qed.

Lemma interleaving_all_local s progs :
  (forall t o, In o (progs t) -> respects o /\ local t o = true) ->
  is_interleaving s progs -> all_local s.
Proof.
  intros Hp Hi [t o] Hin. cbn [fst snd]. apply (Hp t). rewrite <- (Hi t).
  unfold proj. apply in_map_iff. exists (t, o). split; [reflexivity|].
  apply filter_In. split; [exact Hin|]. cbn [fst]. apply Nat.eqb_refl.
Qed.

(* the property theorem *)
Lemma schedule_independence :
  forall (progs : thread -> list op) (s : list event) (h0 : heap),
    (forall t o, In o (progs t) -> respects o /\ local t o = true) ->
    is_interleaving s progs ->
    race_free s /\
    (forall t l, own t l = true -> run_sched s h0 l = run (progs t) h0 l) /\
    (forall l, shared_ro l = true -> run_sched s h0 l = h0 l).
Proof.
  intros progs s h0 Hp Hi. pose proof (interleaving_all_local _ _ Hp Hi) as Hall.
  split; [apply sched_race_free; exact Hall|]. split.
  - intros t l Ho. rewrite <- (Hi t). apply sched_proj; [exact Hall | apply own_visible; exact Ho].
  - intros l Hs. apply sched_shared_unchanged; assumption.
Qed.

(* the same at every point of the schedule (every prefix): each op reads, in the interleaved run,
   exactly the values it reads in the run of its thread alone *)
Lemma prefix_independence :
  forall (s1 s2 : list event) (h0 : heap),
    all_local (s1 ++ s2) ->
    forall t l, own t l = true \/ shared_ro l = true ->
                run_sched s1 h0 l = run (proj t s1) h0 l.
Proof.
  intros s1 s2 h0 Hall t l Hl. apply sched_proj.
  - intros e Hin. apply Hall. apply in_or_app. left. exact Hin.
  - unfold visible. destruct Hl as [-> | ->]; [reflexivity | apply orb_true_r].
Qed.

(* ops built from simultaneous assignments respect their footprint *)
Lemma find_assign_none l ws : mem l (map fst ws) = false -> find_assign l ws = None.
Proof.
  induction ws as [|[l' f] r IH]; cbn [map fst mem existsb find_assign]; intro H; [reflexivity|].
  apply orb_false_iff in H. destruct H as [H1 H2]. rewrite H1. apply IH. exact H2.
Qed.

Lemma find_assign_some l ws : mem l (map fst ws) = true -> find_assign l ws <> None.
Proof.
  induction ws as [|[l' f] r IH]; cbn [map fst mem existsb find_assign]; intro H; [discriminate|].
  destruct (loc_eqb l l'); [discriminate|]. cbn [orb] in H. apply IH. exact H.
Qed.

Lemma aop_respects rs ws : respects (aop rs ws).
Proof.
  split.
  - intros h l Hm. cbn [aop step writes] in *. unfold assign_step.
    rewrite (find_assign_none _ _ Hm). reflexivity.
  - intros h1 h2 Hag l Hm. cbn [aop step reads writes] in *. unfold assign_step.
    assert (Hmap : map h1 rs = map h2 rs).
    { apply map_ext_in. intros a Hin. apply Hag. apply mem_In. exact Hin. }
    rewrite Hmap. pose proof (find_assign_some _ _ Hm) as Hs.
    destruct (find_assign l ws) as [f|]; [reflexivity | contradiction].
Qed.

Lemma race_freeb_sound s : race_free s -> race_freeb s = true.
Proof.
  induction s as [|e r IH]; intro H; [reflexivity|]. cbn [race_freeb]. apply andb_true_iff. split.
  - apply forallb_forall. intros e' Hin. cbv beta. apply In_nth_error in Hin. destruct Hin as [n Hn].
    destruct (Nat.eq_dec (fst e) (fst e')) as [He|He].
    + apply Nat.eqb_eq in He. rewrite He. reflexivity.
    + assert (Hc : conflictb (snd e) (snd e') = false) by (apply (H 0%nat (S n) e e'); [lia | reflexivity | exact Hn | exact He]).
      rewrite Hc. apply orb_true_r.
  - apply IH. intros i j e1 e2 Hij H1 H2 Hne. apply (H (S i) (S j) e1 e2); [lia | exact H1 | exact H2 | exact Hne].
Qed.
