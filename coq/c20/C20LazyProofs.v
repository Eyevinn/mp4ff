(* C20LazyProofs.v -- the lazy-mdat path of mp4/mdat.go in the footprint table (ADecodeLazy / AReadData).
   DecodeFile(rs, WithDecodeMode(DecModeLazyMdat)) keeps no view of the caller's bytes and MdatBox.ReadData on a lazy
   mdat fills a fresh buffer from the goroutine's own ReadSeeker: for ALL sources, goroutines and aliasing states both
   operations are local without any guard, write no shared input, and every in-place operation of the table may follow
   on the result.  The other branch of ReadData (mdat in memory) returns m.Data[a:b:b]: after a SliceReader decode of a
   shared input that is a view of the input, and the in-place operations on it are exactly the guarded ones. *)
From V.lib Require Import Base.
From V.c20 Require Import C20Model C20ApiProofs C20ReachProofs C20AliasProofs.

Lemma assoc_hd o l st : assoc o ((o, l) :: st) = Some l.
Proof. cbn [assoc]. rewrite Nat.eqb_refl. reflexivity. Qed.

Lemma pl_hd t o l st : pl t ((o, l) :: st) o = l.
Proof. unfold pl. rewrite assoc_hd. reflexivity. Qed.

(* state after lazy decode of s into o followed by ReadData into d *)
Definition lazy_st (t : thread) (st : astate) (s : src) (o d : nat) : astate :=
  api_next t (api_next t st (ADecodeLazy s o)) (AReadData o s d).

Lemma lazy_decode_pl t st s o : pl t (api_next t st (ADecodeLazy s o)) o = ownp t o.
Proof. cbn [api_next]. apply pl_hd. Qed.

Lemma lazy_read_pl t st s o d : pl t (lazy_st t st s o d) d = ownp t o.
Proof. unfold lazy_st. cbn [api_next]. rewrite pl_hd. apply pl_hd. Qed.

Lemma input_ids_own t (ls : list loc) : forallb (own t) ls = true -> input_ids ls = [].
Proof.
  induction ls as [|l r IH]; [reflexivity|]. cbn [forallb]. intro H. apply andb_true_iff in H. destruct H as [Hl Hr].
  destruct l as [g|i|t' o]; cbn [own] in Hl; try discriminate Hl. cbn [input_ids flat_map app]. apply IH. exact Hr.
Qed.

(* st_ok is an invariant of the table: it holds after every program prefix *)
Lemma final_state_ok t p : forall st, st_ok t st -> st_ok t (final_state t st p).
Proof.
  induction p as [|a r IH]; intros st H; cbn [final_state]; [exact H | apply IH, next_ok, H].
Qed.

Lemma st_ok_nil t : st_ok t [].
Proof. apply st_own_ok, st_own_nil. Qed.

(* Both operations are local in every state whose payload locations are own cells or inputs, without any guard,
   and write own cells only; the result of ReadData lives in the payload cell of the lazily decoded object, so
   every in-place operation on it passes its guard. *)
Lemma lazy_path_private :
  forall (t : thread) (st : astate) (s : src) (o d : nat),
    st_ok t st ->
    let st1 := api_next t st (ADecodeLazy s o) in
    let st2 := lazy_st t st s o d in
    local t (api_op t st (ADecodeLazy s o)) = true /\
    local t (api_op t st1 (AReadData o s d)) = true /\
    input_ids (writes (api_op t st (ADecodeLazy s o))) = [] /\
    input_ids (writes (api_op t st1 (AReadData o s d))) = [] /\
    own t (pl t st2 d) = true /\
    (forall a, kind_inplace (kind_of a) = true -> api_target a = d ->
               inplace_ok t st2 a = true /\ local t (api_op t st2 a) = true /\
               input_ids (writes (api_op t st2 a)) = []).
Proof.
  intros t st s o d Hst st1 st2.
  assert (H1 : st_ok t st1) by (apply next_ok; exact Hst).
  assert (H2 : st_ok t st2) by (apply next_ok; exact H1).
  assert (Hd : own t (pl t st2 d) = true) by (unfold st2; rewrite lazy_read_pl; apply own_ownp).
  do 2 (split; [now apply api_op_local|]). do 2 (split; [reflexivity|]). split; [exact Hd|].
  intros a Hk <-. destruct (inplace_target a t st2 Hk) as (Hreg & Hg & _). rewrite Hd in Hg.
  repeat split; [exact Hg|now apply api_op_local|]. apply (input_ids_own t). now apply api_writes_own.
Qed.

(* the in-memory branch of ReadData: after a SliceReader decode of a shared input the result is a view of that input,
   every in-place operation on it fails the guard and writes the input (same class as F1-F9) *)
Lemma read_data_in_memory_view :
  forall (t : thread) (st : astate) (i : nat) (s : src) (o d : nat),
    let st2 := api_next t (api_next t st (ADecodeSR (SIn i) o)) (AReadData o s d) in
    pl t st2 d = Input i /\
    input_ids (writes (api_op t (api_next t st (ADecodeSR (SIn i) o)) (AReadData o s d))) = [] /\
    (forall a, kind_inplace (kind_of a) = true -> api_target a = d ->
               inplace_ok t st2 a = false /\ mem (Input i) (writes (api_op t st2 a)) = true).
Proof.
  intros t st i s o d st2.
  assert (Hd : pl t st2 d = Input i).
  { unfold st2. cbn [api_next]. rewrite pl_hd. cbn [src_loc]. apply pl_hd. }
  split; [exact Hd|]. split; [reflexivity|].
  intros a Hk <-. destruct (inplace_target a t st2 Hk) as (_ & Hg & Hm). rewrite Hd in *. now split.
Qed.

(* a concrete instance: goroutine 2 already holds a SliceReader view of input 3 (object 5), lazily decodes the SAME input
   into object 0, reads its payload into 1 and converts it in place; the same with DecodeFileSR instead is refused *)
Definition lazy_ex_prefix : list api := [ADecodeSR (SIn 3) 5; ASamples 5 6].

Lemma lazy_instance :
  pl 2 (final_state 2 [] lazy_ex_prefix) 6 = Input 3 /\
  pl 2 (lazy_st 2 (final_state 2 [] lazy_ex_prefix) (SIn 3) 0 1) 1 = ownp 2 0 /\
  kind_inplace (kind_of (AToByteStream 1)) = true /\ api_target (AToByteStream 1) = 1%nat /\
  prog_safe 2 [] (lazy_ex_prefix ++ [ADecodeLazy (SIn 3) 0; AReadData 0 (SIn 3) 1; AToByteStream 1; ADecryptWith 1 (SIn 7)]) = true /\
  prog_safe 2 [] (lazy_ex_prefix ++ [ADecodeSR (SIn 3) 0; AReadData 0 (SIn 3) 1; AToByteStream 1]) = false /\
  reader_only [ADecodeLazy (SIn 3) 0; AReadData 0 (SIn 3) 1; AToByteStream 1] = true.
Proof. repeat split. Qed.
