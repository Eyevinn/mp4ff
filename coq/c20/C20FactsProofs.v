(* C20FactsProofs.v -- the policy evaluated on the facts extracted from the current /repo sources. *)
From Coq Require Import List String Bool.
From V.c20 Require Import C20Facts C20PkgVars.
Import ListNotations.
Open Scope string_scope.

Lemma pkg_vars_ok :
  forallb var_ok c20_pkg_vars = true /\
  forallb imports_ok c20_imports = true /\
  has_var c20_pkg_vars "mp4" "decoders" && has_var c20_pkg_vars "mp4" "decodersSR" &&
  has_var c20_pkg_vars "mp4" "sgeDecoders" = true.
Proof. vm_compute. repeat split. Qed.

Lemma str_in_In s l : str_in s l = true -> In s l.
Proof.
  unfold str_in. intros H. apply existsb_exists in H. destruct H as [x [Hin Hx]].
  apply String.eqb_eq in Hx. subst. exact Hin.
Qed.

(* what the policy says of one variable *)
Lemma var_ok_writers v :
  var_ok v = true -> forall u, In u (v_uses v) -> is_write (u_kind u) = true -> In (u_fn u) allowed_writers.
Proof.
  unfold var_ok. rewrite forallb_forall. intros H u Hu Hw. specialize (H u Hu).
  unfold use_ok in H. rewrite Hw in H. now apply str_in_In.
Qed.

(* unfolded reading: every use through which a package-level variable can change sits in an
   initialiser, in init, or in SetBoxDecoder / RemoveBoxDecoder *)
Lemma pkg_vars_writers :
  forall v u, In v c20_pkg_vars -> In u (v_uses v) -> is_write (u_kind u) = true ->
              In (u_fn u) allowed_writers.
Proof.
  intros v u Hv. apply var_ok_writers. destruct pkg_vars_ok as [H _].
  rewrite forallb_forall in H. exact (H v Hv).
Qed.
