(* C04Theorems.v — the property theorems of C04 and nothing else.
   Models: C04Model.v (FixedSliceReader, box headers, DecodeBox/DecodeBoxSR, both container child loops,
   explicit Panic / cost semantics), C04AsmModel.v (file assembly, File.Encode/EncodeSW, File.Info over
   top-level box shapes; g = true is the repaired text, g = false the pinned text). *)
From V.lib Require Import Base.
From V.c04 Require Import C04Model C04AsmModel C04ReaderProofs C04ContainerProofs C04AsmProofs.
From V.c04 Require Import C04AllocModel C04AllocProofs.
From V.c04 Require Import C04MfraModel C04MfraProofs.
From V.c04 Require Import C04TreeModel C04TreeProofs.
From V.c04 Require Import C04TreeXModel C04TreeXProofs.
From V.c04 Require Import C04XrefModel C04XrefProofs.
From V.c04 Require Import C04InfoModel C04InfoProofs C04InfoSencProofs.
Open Scope N_scope.

(* ---- (a) bits.FixedSliceReader: every method, every reachable state, under the caller guards ---- *)
Theorem C04_reader_safe : forall s o, rinv s = true -> rguard s o = true ->
  exists v s', rstep s o = Ok (v, s') /\ rinv s' = true /\ rbuf s' = rbuf s.
Proof. exact reader_safe. Qed.
Print Assumptions C04_reader_safe.

Theorem C04_reader_history_safe : forall ops s, rinv s = true -> guards_ok s ops = true ->
  exists vs s', run_rops s ops = Ok (vs, s') /\ rinv s' = true /\ rbuf s' = rbuf s.
Proof. exact reader_history_safe. Qed.
Print Assumptions C04_reader_history_safe.

(* without the guards: negative length, unchecked ReadPossiblyZeroTerminatedString, negative LookAhead
   offset panic at once; SkipBytes(negative), SkipBytes(overflowing) and SetPos(negative) leave pos < 0
   and the next read panics *)
Theorem C04_reader_neg_refuted :
  rinv s3 = true /\
  rstep s3 (RFixedStr (-1)) = Panic /\
  rstep s3 (RPZStr 5) = Panic /\
  rstep s3 (RLookAhead (-2) 1) = Panic /\
  (exists s', rstep s3 (RSkip (-2)) = Ok (VUnit, s') /\ rinv s' = false /\ rstep s' RU8 = Panic) /\
  (exists s', rstep s3 (RSkip (two63 - 1)) = Ok (VUnit, s') /\ rinv s' = false /\ rstep s' RU8 = Panic) /\
  (exists s', rstep s3 (RSetPos (-1)) = Ok (VUnit, s') /\ rinv s' = false /\ rstep s' RU8 = Panic).
Proof. exact reader_neg_refuted. Qed.
Print Assumptions C04_reader_neg_refuted.

(* ---- (b) box headers, DecodeBox / DecodeBoxSR and both container child loops, every byte string ---- *)
(* both header decoders never panic on any state of their byte source; the io.Reader one allocates <= 16 *)
Theorem C04_header_total :
  (forall s, IInv s -> exists r s', decode_header s = (r, s') /\ np r /\ T (icost s') <= T (icost s) + 16)%Z /\
  (forall s, Inv (sr s) -> exists r s', decode_header_sr s = (r, s') /\ np r /\ Inv (sr s') /\ scost s' = scost s).
Proof. exact header_total. Qed.
Print Assumptions C04_header_total.

(* SliceReader path: for every leaf decoder satisfying the contract and every byte string (Go slice lengths
   are < 2^63): a tree or an error, never Panic, never out of fuel len+1, ticks + alloc <= 2*len + 29
   (the constant covers the capped children listing of the size-mismatch error) *)
Theorem C04_container_total_sr : forall ld, leaf_ok ld -> forall bs, small bs = true ->
  exists r s', box_sr ld bs = (r, s') /\ (r = Err \/ exists t, r = Ok t) /\
               (tot (scost s') <= 2 * lenN bs + 29)%N.
Proof. exact container_total_sr. Qed.
Print Assumptions C04_container_total_sr.

(* io.Reader path: a tree, io.EOF or an error; ticks + alloc <= 6*len + 29 *)
Theorem C04_container_total_r : forall ld, leaf_ok ld -> forall bs, small bs = true ->
  exists r s', box_r ld bs = (r, s') /\ (r = Err \/ r = Ok BEof \/ exists t, r = Ok (BBox t)) /\
               (tot (icost s') <= 6 * lenN bs + 29)%N.
Proof. exact container_total_r. Qed.
Print Assumptions C04_container_total_r.

(* the contract is satisfiable: the leaves used by the correspondence (mdat, free/skip, unknown boxes) *)
Theorem C04_std_leaves_ok : leaf_ok std_leaves.
Proof. exact std_leaves_ok. Qed.
Print Assumptions C04_std_leaves_ok.

(* ---- (c) file assembly over shapes, all decode options, then Info and both encode modes ---- *)
Theorem C04_assembly_total : forall (o : opts) (boxes : list (topshape * N)),
  match assemble true o boxes with
  | Ok f => no_panic (info_file true f) /\ no_panic (encode_file true false f) /\ no_panic (encode_file true true f)
  | Err => True
  | Panic => False
  | OutOfFuel => False
  end.
Proof. exact assembly_total. Qed.
Print Assumptions C04_assembly_total.

(* the pinned text (f87a9e4) panics; each witness was replayed on the real code before the repair *)
Theorem C04_assembly_refuted_moov_without_trak :
  assemble false oR [(TMoov (MoovChain 0 0), 116)] = Panic.
Proof. exact assembly_refuted_moov_without_trak. Qed.
Print Assumptions C04_assembly_refuted_moov_without_trak.

Theorem C04_assembly_refuted_traf_without_tfhd :
  assemble false oR [(TFtyp, 32); (TMoov (MoovChain 5 0), 554);
                     (TMoof [mkTraf false (Some (SencUnparsed true)) None []], 56)] = Panic.
Proof. exact assembly_refuted_traf_without_tfhd. Qed.
Print Assumptions C04_assembly_refuted_traf_without_tfhd.

Theorem C04_assembly_refuted_saio_without_offsets :
  assemble false oR [(TMoof [mkTraf true (Some (SencUnparsed true)) (Some SaioEmpty) []], 88)] = Panic.
Proof. exact assembly_refuted_saio_without_offsets. Qed.
Print Assumptions C04_assembly_refuted_saio_without_offsets.

Theorem C04_assembly_refuted_no_segment_after_sidx :
  assemble false oR [(TSidx (mkSidx 1 [(false, 100)]), 44); (TMoof [full_traf], 68)] = Panic /\
  assemble false oR [(TSidx (mkSidx 1 [(false, 100)]), 44); (TEmsg, 40)] = Panic.
Proof. exact assembly_refuted_no_segment_after_sidx. Qed.
Print Assumptions C04_assembly_refuted_no_segment_after_sidx.

Theorem C04_assembly_refuted_tfra_entries :
  assemble false oISM [(TMoof [], 24); (TMdat 4, 12); (TMoof [], 24); (TMdat 4, 12); (TMfra [(1, [0])], 67)] = Panic.
Proof. exact assembly_refuted_tfra_entries. Qed.
Print Assumptions C04_assembly_refuted_tfra_entries.

Theorem C04_assembly_refuted_mfra_without_tfra :
  assemble false oISM [(TOther, 8); (TMfra [], 24)] = Panic.
Proof. exact assembly_refuted_mfra_without_tfra. Qed.
Print Assumptions C04_assembly_refuted_mfra_without_tfra.

Theorem C04_encode_refuted_nil_ftyp : exists f,
  assemble false oR [(TMoov (MoovChain 5 0), 554)] = Ok f /\ encode_file false false f = Panic.
Proof. exact encode_refuted_nil_ftyp. Qed.
Print Assumptions C04_encode_refuted_nil_ftyp.

Theorem C04_encode_refuted_moof_without_traf : exists f,
  assemble false oR [(TMoof [], 24); (TMdat 4, 12)] = Ok f /\
  encode_file false false f = Panic /\ encode_file false true f = Panic.
Proof. exact encode_refuted_moof_without_traf. Qed.
Print Assumptions C04_encode_refuted_moof_without_traf.

Theorem C04_encode_refuted_second_traf_zero_offset : exists f,
  assemble false oR [(TMoof [full_traf; mkTraf true None None [TrunZeroOffset]], 100); (TMdat 4, 12)] = Ok f /\
  encode_file false true f = Panic.
Proof. exact encode_refuted_second_traf_zero_offset. Qed.
Print Assumptions C04_encode_refuted_second_traf_zero_offset.

Theorem C04_info_refuted_saio_without_offsets : exists f,
  assemble false oR [(TMoof [mkTraf true None (Some SaioEmpty) []], 64)] = Ok f /\ info_file false f = Panic.
Proof. exact info_refuted_saio_without_offsets. Qed.
Print Assumptions C04_info_refuted_saio_without_offsets.


(* ---- (d) the count-guard-then-allocate prologues of the table-box decoders (C04AllocModel.v) ----
   bounded r a b e c n: the decoder returns (a box or an error, never a panic), has requested at most a*n + b
   bytes with make / append, and e * (loop iterations) <= n + c; n = hdr.Size (at most the input length: DecodeBoxSR
   rejects a box larger than the remaining bytes, readBoxBody fails when the body is short) or, for the decoders
   without a size guard, the number of bytes the reader sees.  For ALL header sizes, header lengths and bodies. *)
Theorem C04_alloc_trun : forall p hs hl body, bounded (alloc_trun p hs hl body) 4 16384 4 4096 hs.
Proof. exact alloc_trun_bounded. Qed.
Print Assumptions C04_alloc_trun.

Theorem C04_alloc_stts : forall hs hl body, bounded (alloc_stts hs hl body) 1 0 8 0 hs.
Proof. exact alloc_stts_bounded. Qed.
Print Assumptions C04_alloc_stts.

Theorem C04_alloc_stsc : forall hs hl body, bounded (alloc_stsc hs hl body) 2 0 12 0 hs.
Proof. exact alloc_stsc_bounded. Qed.
Print Assumptions C04_alloc_stsc.

Theorem C04_alloc_stsz : forall hs hl body, bounded (alloc_stsz hs hl body) 1 0 4 0 hs.
Proof. exact alloc_stsz_bounded. Qed.
Print Assumptions C04_alloc_stsz.

Theorem C04_alloc_stco : forall hs hl body, bounded (alloc_stco hs hl body) 1 0 4 0 hs.
Proof. exact alloc_stco_bounded. Qed.
Print Assumptions C04_alloc_stco.

Theorem C04_alloc_co64 : forall hs hl body, bounded (alloc_co64 hs hl body) 1 0 8 0 hs.
Proof. exact alloc_co64_bounded. Qed.
Print Assumptions C04_alloc_co64.

Theorem C04_alloc_stss : forall hs hl body, bounded (alloc_stss hs hl body) 1 0 4 0 hs.
Proof. exact alloc_stss_bounded. Qed.
Print Assumptions C04_alloc_stss.

Theorem C04_alloc_sdtp : forall hs hl body, bounded (alloc_sdtp hs hl body) 1 0 1 0 hs.
Proof. exact alloc_sdtp_bounded. Qed.
Print Assumptions C04_alloc_sdtp.

Theorem C04_alloc_saiz : forall hs hl body, bounded (alloc_saiz hs hl body) 1 0 1 0 hs.
Proof. exact alloc_saiz_bounded. Qed.
Print Assumptions C04_alloc_saiz.

Theorem C04_alloc_saio : forall hs hl body, bounded (alloc_saio hs hl body) 2 0 4 0 hs.
Proof. exact alloc_saio_bounded. Qed.
Print Assumptions C04_alloc_saio.

Theorem C04_alloc_senc : forall p hs hl body, bounded (alloc_senc p hs hl body) 0 0 1 0 hs.
Proof. exact alloc_senc_bounded. Qed.
Print Assumptions C04_alloc_senc.

Theorem C04_alloc_sbgp : forall hs hl body, bounded (alloc_sbgp hs hl body) 1 0 8 0 hs.
Proof. exact alloc_sbgp_bounded. Qed.
Print Assumptions C04_alloc_sbgp.

Theorem C04_alloc_subs : forall hs hl body, bounded (alloc_subs hs hl body) 6 786420 1 65536 (lenN body).
Proof. exact alloc_subs_bounded. Qed.
Print Assumptions C04_alloc_subs.

Theorem C04_alloc_elst : forall hs hl body, bounded (alloc_elst hs hl body) 2 0 12 0 hs.
Proof. exact alloc_elst_bounded. Qed.
Print Assumptions C04_alloc_elst.

Theorem C04_alloc_tfra : forall hs hl body, bounded (alloc_tfra hs hl body) 3 0 11 0 hs.
Proof. exact alloc_tfra_bounded. Qed.
Print Assumptions C04_alloc_tfra.

Theorem C04_alloc_sidx : forall hs hl body, bounded (alloc_sidx hs hl body) 0 1048560 1 65535 hs.
Proof. exact alloc_sidx_bounded. Qed.
Print Assumptions C04_alloc_sidx.

Theorem C04_alloc_pssh : forall hs hl body, bounded (alloc_pssh hs hl body) 3 40 16 16 (lenN body).
Proof. exact alloc_pssh_bounded. Qed.
Print Assumptions C04_alloc_pssh.

Theorem C04_alloc_ssix : forall hs hl body, bounded (alloc_ssix hs hl body) 3 0 8 0 hs.
Proof. exact alloc_ssix_bounded. Qed.
Print Assumptions C04_alloc_ssix.

Theorem C04_alloc_treftype : forall hs hl body, bounded (alloc_treftype hs hl body) 1 0 4 0 hs.
Proof. exact alloc_treftype_bounded. Qed.
Print Assumptions C04_alloc_treftype.

Theorem C04_alloc_leva : forall hs hl body, bounded (alloc_leva_prologue hs hl body) 0 5100 1 255 hs.
Proof. exact alloc_leva_bounded. Qed.
Print Assumptions C04_alloc_leva.

Theorem C04_alloc_uuid : forall hs hl body, bounded (alloc_uuid hs hl body) 0 4144 1 255 hs.
Proof. exact alloc_uuid_bounded. Qed.
Print Assumptions C04_alloc_uuid.

Theorem C04_alloc_ftyp_styp : forall p hs hl body,
  bounded (alloc_ftyp hs hl body) 0 0 1 0 hs /\ bounded (alloc_styp p hs hl body) 0 0 1 0 hs.
Proof. exact alloc_ftyp_styp_bounded. Qed.
Print Assumptions C04_alloc_ftyp_styp.

(* ctts: make([]uint32, entryCount+1) wraps in uint32 for entryCount = 2^32-1, which needs a box of exactly
   34359738376 bytes (32 GiB): bounded for every other size, an index panic at that size (not reproducible through
   DecodeBox on this machine: the second make asks for 16 GiB first) *)
Theorem C04_alloc_ctts : forall hs hl body, hs <> 34359738376 -> bounded (alloc_ctts hs hl body) 1 4 8 0 hs.
Proof. exact alloc_ctts_bounded. Qed.
Print Assumptions C04_alloc_ctts.

Theorem C04_alloc_ctts_refuted_at_32GiB : forall hl body vf s1 s2,
  rd_n body 4 rd0 = (vf, s1) -> rd_n body 4 s1 = (4294967295, s2) -> alloc_ctts 34359738376 hl body = Panic.
Proof. exact alloc_ctts_panics. Qed.
Print Assumptions C04_alloc_ctts_refuted_at_32GiB.

(* sgpd with grouping type alst (first entry): the repaired text (26a2e48) is bounded by the bytes the reader sees;
   the pinned text asked for 2 x (2^31-2) bytes on a 20-byte payload (witness replayed on the real code: 4 GiB) *)
Theorem C04_alloc_sgpd_alst : forall hs hl body,
  bounded (alloc_sgpd_alst true hs hl body) 1 262140 4 262140 (lenN body).
Proof. exact alloc_sgpd_alst_bounded. Qed.
Print Assumptions C04_alloc_sgpd_alst.

Theorem C04_alloc_sgpd_alst_refuted :
  exists o, alloc_sgpd_alst false 28 8 alst_witness = Ok o /\ o_alloc o = 4294967292 /\ lenN alst_witness = 20.
Proof. exact alloc_sgpd_alst_pinned_balloons. Qed.
Print Assumptions C04_alloc_sgpd_alst_refuted.

(* sgpd, the whole entry loop (seig / roll / rap / alst / other entries, default or per-entry description length),
   repaired text: bounded by the bytes the reader sees; no size guard exists, the loop stops at the first entry that
   does not fit or whose Size() differs from its description length *)
Theorem C04_alloc_sgpd : forall hs hl body,
  exists o, alloc_sgpd hs hl body = Ok o /\ o_alloc o <= 86 * lenN body + 262208 /\ o_iters o <= 3 * lenN body + 65536.
Proof. exact alloc_sgpd_bounded. Qed.
Print Assumptions C04_alloc_sgpd.

(* senc second phase (ParseReadBox + parseAndFillSamples, iv given or tried as 0 / 8 / 16): under the guard that the
   first phase establishes, at most 72 * len(rawData) + 360 bytes are requested and the loops run at most
   3 * len(rawData) + 3 times; the first phase does establish it (header length 8 or 16) *)
Theorem C04_alloc_senc_parse : forall fl cnt raw iv, (has fl 2 = true -> 2 * cnt <= lenN raw + 8) ->
  exists ok a b al it, senc_parse fl cnt raw iv = Ok (ok, a, b, al, it) /\ al <= 72 * lenN raw + 360 /\ it <= 3 * lenN raw + 3.
Proof. exact senc_parse_bounded. Qed.
Print Assumptions C04_alloc_senc_parse.

Theorem C04_alloc_senc_guard : forall p hs hl body o, hl <= 16 -> (p = false -> lenN body = hs - hl) ->
  alloc_senc p hs hl body = Ok o -> o_ok o = true ->
  has (flags_of (fst (rd_n body 4 rd0))) 2 = true ->
  2 * o_count o <= lenN (firstn (Z.to_nat (apayload_len hs hl - 8)) (skipn 8 body)) + 8.
Proof. exact senc_guard_established. Qed.
Print Assumptions C04_alloc_senc_guard.

(* hvcC: the array / NALU loops of DecodeHEVCDecConfRec (8 and 16 bit counts, leave on the accumulated error) *)
Theorem C04_alloc_hvcc : forall p hs hl body, bounded (alloc_hvcc p hs hl body) 12 8184 1 256 (lenN body).
Proof. exact alloc_hvcc_bounded. Qed.
Print Assumptions C04_alloc_hvcc.

(* tlou / alou: 6-bit base count, 8-bit measurement counts, no exit on error: a constant bound *)
Theorem C04_alloc_lou : forall hs hl body, bounded (alloc_lou hs hl body) 0 67284 1 16128 hs.
Proof. exact alloc_lou_bounded. Qed.
Print Assumptions C04_alloc_lou.

(* avcC: 5-bit SPS count, 8-bit PPS count, every index checked: a constant bound *)
Theorem C04_alloc_avcc : forall p hs hl body, bounded (alloc_avcc p hs hl body) 0 6912 1 286 hs.
Proof. exact alloc_avcc_bounded. Qed.
Print Assumptions C04_alloc_avcc.

(* box level, both decode paths, EVERY byte string shorter than 32 GiB whose box type is one of the 21 modelled
   ones: header, size guard, prologue: at most 8 * len + 1048560 bytes requested, at most 2 * len + 65535 iterations *)
Theorem C04_alloc_box_sr : forall bs, lenN bs < 34359738376 ->
  match alloc_box_sr bs with Some r => bounded_box r (lenN bs) | None => True end.
Proof. exact alloc_box_sr_bounded. Qed.
Print Assumptions C04_alloc_box_sr.

Theorem C04_alloc_box_r : forall bs, lenN bs < 34359738376 ->
  match alloc_box_r bs with Some r => bounded_box r (lenN bs) | None => True end.
Proof. exact alloc_box_r_bounded. Qed.
Print Assumptions C04_alloc_box_r.

(* the 32-bit counts and per-entry sizes <= 64 cannot wrap the uint64 expectedSize arithmetic *)
Theorem C04_alloc_expected_size_no_wrap : forall body s k fixed, k <= 64 -> fixed <= 4096 ->
  fixed + fst (rd_n body 4 s) * k < 18446744073709551616.
Proof. exact exp_no_wrap. Qed.
Print Assumptions C04_alloc_expected_size_no_wrap.

(* ---- non-vacuity ---- *)
Example ex_reader_state : rinv (mkR [0; 0; 0; 16; 102; 114; 101; 101]%N 4 false) = true.
Proof. reflexivity. Qed.
Example ex_reader_guard : rguard (mkR [0; 0; 0; 16; 102; 114; 101; 101]%N 4 false) (RFixedStr 4) = true.
Proof. reflexivity. Qed.
Example ex_reader_step :
  rstep (mkR [0; 0; 0; 16; 102; 114; 101; 101]%N 4 false) (RFixedStr 4)
  = Ok (VBytes [102; 114; 101; 101]%N, mkR [0; 0; 0; 16; 102; 114; 101; 101]%N 8 false).
Proof. vm_compute. reflexivity. Qed.
(* a fragmented file: ftyp moov(no samples) styp moof mdat moof mdat is accepted, grouped into one styp segment
   with two fragments, and encodes in both modes *)
Example ex_assembly :
  match assemble true oR [(TFtyp, 32); (TMoov (MoovChain 5 0), 554); (TStyp, 20);
                          (TMoof [full_traf], 68); (TMdat 4, 12); (TMoof [full_traf], 68); (TMdat 4, 12)] with
  | Ok f => f_frag f = true /\ map obs_segment (f_segs f) =
              [(586, true, 0, [(606, 2, true, true); (686, 2, true, true)])]
            /\ encode_file true false f = Ok tt /\ encode_file true true f = Ok tt /\ info_file true f = Ok tt
  | _ => False
  end.
Proof. vm_compute. repeat split; reflexivity. Qed.

(* moof{traf{}, free} decodes to the same tree on both paths (std leaves), within the cost bounds *)
Example ex_box_bytes : list N :=
  [0;0;0;24;109;111;111;102; 0;0;0;8;116;114;97;102; 0;0;0;8;102;114;101;101]%N.
Example ex_small : small ex_box_bytes = true.
Proof. reflexivity. Qed.
Example ex_box_sr : fst (box_sr std_leaves ex_box_bytes)
  = Ok (Node name_moof [Node name_traf []; Leaf name_free 8]).
Proof. vm_compute. reflexivity. Qed.
Example ex_box_r : fst (box_r std_leaves ex_box_bytes)
  = Ok (BBox (Node name_moof [Node name_traf []; Leaf name_free 8])).
Proof. vm_compute. reflexivity. Qed.

(* a 24-byte trun (flags 0x004: first-sample-flags, no per-sample field) with sample_count 2^22 is rejected by the
   prologue on both paths; with sample_count 3 it decodes to 3 samples and 48 bytes are requested *)
Example ex_trun_fsf_big : list N := [0;0;0;20;116;114;117;110; 0;0;0;4; 0;64;0;0; 2;0;0;0].
Example ex_trun_rejected :
  alloc_box_sr ex_trun_fsf_big = Some rej /\ alloc_box_r ex_trun_fsf_big = Some rej.
Proof. vm_compute. split; reflexivity. Qed.
Example ex_trun_ok :
  alloc_box_sr [0;0;0;20;116;114;117;110; 0;0;0;4; 0;0;0;3; 2;0;0;0] = Some (Ok (mkO true 3 48 3)).
Proof. vm_compute. reflexivity. Qed.
(* an stts with two entries: 16 bytes requested, two iterations; the hypothesis of the box theorems is satisfiable *)
Example ex_stts_ok :
  alloc_box_r [0;0;0;32;115;116;116;115; 0;0;0;0; 0;0;0;2; 0;0;0;1;0;0;0;1; 0;0;0;1;0;0;0;1] = Some (Ok (mkO true 2 16 2))
  /\ lenN ex_trun_fsf_big < 34359738376.
Proof. vm_compute. split; reflexivity. Qed.

(* an sgpd with two roll entries decodes to 2 entries; one with grouping type alst and default_length 2 is rejected *)
Example ex_sgpd_roll :
  alloc_box_sr [0;0;0;28;115;103;112;100; 1;0;0;0; 114;111;108;108; 0;0;0;2; 0;0;0;2; 255;255; 255;255]
  = Some (Ok (mkO true 2 48 2)).
Proof. vm_compute. reflexivity. Qed.
Example ex_sgpd_alst_rejected :
  match alloc_box_sr ([0;0;0;28;115;103;112;100] ++ alst_witness) with Some (Ok o) => o_ok o = false /\ o_alloc o = 56 | _ => False end.
Proof. vm_compute. split; reflexivity. Qed.

(* a senc with the subsample flag, two samples (8-byte IV, one subsample each): both phases succeed with
   perSampleIVSize unknown (0 fails, 8 fits): 2 IVs, 2 subsample lists; the guard hypothesis holds for it *)
Example ex_senc_two_phase :
  senc_box true [0;0;0;48;115;101;110;99; 0;0;0;2; 0;0;0;2;
                 1;2;3;4;5;6;7;8; 0;1; 0;1; 0;0;0;2;  1;2;3;4;5;6;7;8; 0;1; 0;1; 0;0;0;2] 0
  = Some (Ok (true, true, 2, 2, 160, 5)).
Proof. vm_compute. reflexivity. Qed.

(* ---- (e) the trailing index: File.findAndReadMfra over extended shapes (any mfro position and ParentSize:
        absent, too small, too large, pointing at a non-mfra box or inside a box; an mfra at top level or inside
        an mdat payload; any number of tfra boxes with any entry counts, track ids and moof offsets) ---- *)
Theorem C04_mfra_lookback_total : forall boxes : list (xshape * N),
  match find_and_read_mfra_x true boxes with Panic => False | OutOfFuel => False | _ => True end.
Proof. exact find_mfra_x_np. Qed.
Print Assumptions C04_mfra_lookback_total.

(* the comparison of a later tfra with the first one: what Go does today for unequal entry counts is an error
   BEFORE the offset loop; the loop indexes the first tfra and stays in range only because of that check *)
Theorem C04_mfra_tfras_loop_spec : forall first rest,
  tfras_loop first rest = if tfras_consistent first rest then Ok tt else Err.
Proof. exact tfras_loop_spec. Qed.
Print Assumptions C04_mfra_tfras_loop_spec.

Theorem C04_mfra_offset_loop_in_range : forall other first j,
  (j + length other <= length first)%nat ->
  match offs_loop other first j with Panic => False | OutOfFuel => False | _ => True end.
Proof. exact offs_loop_np. Qed.
Print Assumptions C04_mfra_offset_loop_in_range.

Theorem C04_mfra_length_check_needed : forall common extra more,
  offs_loop (common ++ extra :: more) common 0 = Panic.
Proof. intros. apply offs_loop_longer_panics. reflexivity. Qed.
Print Assumptions C04_mfra_length_check_needed.

Theorem C04_assembly_x_total : forall (o : opts) (boxes : list (xshape * N)),
  match assemble_x true o boxes with
  | Ok f => no_panic (info_file true f) /\ no_panic (encode_file true false f) /\ no_panic (encode_file true true f)
  | Err => True
  | Panic => False
  | OutOfFuel => False
  end.
Proof. exact assembly_x_total. Qed.
Print Assumptions C04_assembly_x_total.

(* on the shapes of C04AsmModel (boxes of positive size) the extended model is the old one *)
Theorem C04_assembly_x_embed : forall o boxes, Forall (fun b => 0 < snd b) boxes ->
  assemble_x true o (embed boxes) = assemble true o boxes.
Proof. exact assemble_x_embed. Qed.
Print Assumptions C04_assembly_x_embed.

(* the 107-byte file mfra{tfra(id 1, 0 entries), tfra(id 2, 1 entry), mfro(107)} under the ISM flag is an error;
   an mfra found through a stand-alone mfro, or inside an mdat, is used; a wrong ParentSize is an error *)
Example ex_mfra_two_tfras :
  assemble_x true oISMx [(XMfra [(1, []); (2, [0])] (Some 107), 107)] = Err.
Proof. vm_compute. reflexivity. Qed.
Example ex_mfra_standalone_mfro :
  find_and_read_mfra_x true [(XTop (TMoof []), 24); (XMfra [(1, [0])] None, 51); (XMfro 67, 16)] = Ok (Some [0]) /\
  find_and_read_mfra_x true [(XTop (TMoof []), 24); (XMdatMfra 4 [(1, [0])] (Some 67), 79)] = Ok (Some [0]) /\
  find_and_read_mfra_x true [(XTop (TMoof []), 24); (XMfra [(1, [0])] (Some 66), 67)] = Err.
Proof. repeat split; vm_compute; reflexivity. Qed.

(* ---- (f) the allocation clause over TREES: DecodeBoxSR / DecodeBox with both container child loops where every leaf of
        type trun stts ctts stsc stsz stco co64 stss sdtp saiz saio sbgp elst tfra runs its modelled prologue (size guard,
        make([]T, n), entry loop) and every other leaf is any decoder under the contract leaf_ok (cost <= consumed + 1):
        for EVERY byte string below 32 GiB - 16 the decode returns a tree, EOF or an error, and the bytes requested and
        the loop iterations / decoded boxes are each <= 2600 * len + 20740 (SliceReader) / 2601 * len + 20771 (io.Reader).
        The factor is a trun of 16..24 bytes that legitimately reserves 1024 samples (16 KiB).
        sidx, subs, pssh have no size guard, so the position they leave the shared reader at is not a function of the
        header: they are leaves in (i), with a model of their own. ---- *)
Theorem C04_tree_alloc_partial : forall other, leaf_ok other -> forall bs, small32 bs = true ->
  (exists r s', box_sr (mix_leaves other) bs = (r, s') /\ (r = Err \/ exists t, r = Ok t) /\
                (alloc (scost s') <= 2600 * lenN bs + 20740)%N /\ (ticks (scost s') <= 2600 * lenN bs + 20740)%N) /\
  (exists r s', box_r (mix_leaves other) bs = (r, s') /\ (r = Err \/ r = Ok BEof \/ exists t, r = Ok (BBox t)) /\
                (alloc (icost s') <= 2601 * lenN bs + 20771)%N /\ (ticks (icost s') <= 2601 * lenN bs + 20771)%N).
Proof. exact tree_alloc. Qed.
Print Assumptions C04_tree_alloc_partial.

(* the leaf contract leaf_ok2 (a leaf costs LA * consumed + LC when it returns a box, LA * remaining + LC when it
   returns an error) and the container theorems for ANY leaf decoder satisfying it *)
Theorem C04_container_total2_sr : forall ld, leaf_ok2 ld -> forall bs, small32 bs = true ->
  exists r s', box_sr ld bs = (r, s') /\ (r = Err \/ exists t, r = Ok t) /\
               (tot (scost s') <= 2600 * lenN bs + 20740)%N.
Proof. exact tree_total_sr. Qed.
Print Assumptions C04_container_total2_sr.

Theorem C04_container_total2_r : forall ld, leaf_ok2 ld -> forall bs, small32 bs = true ->
  exists r s', box_r ld bs = (r, s') /\ (r = Err \/ r = Ok BEof \/ exists t, r = Ok (BBox t)) /\
               (tot (icost s') <= 2601 * lenN bs + 20771)%N.
Proof. exact tree_total_r. Qed.
Print Assumptions C04_container_total2_r.

Theorem C04_table_leaves_ok : forall other, leaf_ok other -> leaf_ok2 (mix_leaves other).
Proof. exact mix_leaves_ok2. Qed.
Print Assumptions C04_table_leaves_ok.

(* moof{mfhd, traf{tfhd, trun(1 sample)}}: the trun leaf runs its prologue inside two containers on both paths;
   the hypotheses (a leaf decoder under leaf_ok, a byte string below 32 GiB) are satisfiable *)
Example ex_tree_moof : list N :=
  [0;0;0;60;109;111;111;102; 0;0;0;16;109;102;104;100;0;0;0;0;0;0;0;1;
   0;0;0;36;116;114;97;102; 0;0;0;8;102;114;101;101; 0;0;0;20;116;114;117;110;0;0;2;0;0;0;0;1;0;0;0;4].
Example ex_tree_moof_ok :
  leaf_ok std_leaves /\ small32 ex_tree_moof = true /\
  (match box_sr tbl_leaves ex_tree_moof with (Ok t, s) => tsize t = 60%N /\ alloc (scost s) = 36%N | _ => False end) /\
  (match box_r tbl_leaves ex_tree_moof with (Ok (BBox t), s) => tsize t = 60%N | _ => False end).
Proof. split; [exact std_leaves_ok|]. vm_compute. repeat split; reflexivity. Qed.

(* ---- (g) cross-box references of the second senc pass (mp4/traf.go ParseReadSenc, the moof case of DecodeFile /
        DecodeFileSR): the seig group lookup sbgp.group_description_index -> sgpd.SampleGroupEntries, the saio
        offset against the senc position, tfhd.track_ID against the traks of the moov.
        returns r := r is Ok _ or Err (never Panic, never out of fuel).  sbgp_wf: the two parallel sbgp slices have
        the same length (what DecodeSbgpSR produces: C04_sbgp_decoded_wf); without it the first index expression is
        partial (an API-built box: group_lookup_api_panics). ---- *)
Theorem C04_senc_group_lookup_total : forall sb sg, sbgp_wf sb = true -> returns (group_lookup sb sg).
Proof. exact group_lookup_total. Qed.
Print Assumptions C04_senc_group_lookup_total.

Theorem C04_sbgp_decoded_wf : forall seig entries, sbgp_wf (sbgp_decoded seig entries) = true.
Proof. exact sbgp_decoded_wf. Qed.
Print Assumptions C04_sbgp_decoded_wf.

(* what the pinned text accepts: one sbgp entry, index 65536 + 1, first sgpd entry a seig entry *)
Theorem C04_senc_group_lookup_accepts : forall sb sg iv, group_lookup sb sg = Ok iv ->
  lenN (sb_counts sb) = 1 /\ idxN (sb_idx sb) 0 = Ok 65537 /\ idxN (sg_entries sg) 0 = Ok (SGSeig iv).
Proof. exact group_lookup_accepts. Qed.
Print Assumptions C04_senc_group_lookup_accepts.

(* the generalised text ("any fragment-local index") with `idx > len(entries)` as range check: an index exactly one
   past the last entry is an out-of-range access, and nothing else is *)
Theorem C04_senc_group_lookup_off_by_one_refuted :
  exists sb sg, sbgp_wf sb = true /\ group_lookup_gen false sb sg = Panic.
Proof. exact group_lookup_gen_refuted. Qed.
Print Assumptions C04_senc_group_lookup_off_by_one_refuted.

Theorem C04_senc_group_lookup_off_by_one_exact : forall sb sg, sbgp_wf sb = true ->
  (group_lookup_gen false sb sg = Panic <->
   lenN (sb_counts sb) = 1 /\ lenN (sg_entries sg) <> 0 /\
   exists nr, idxN (sb_idx sb) 0 = Ok nr /\ 65536 < nr /\ u32sub (u32sub nr 65536) 1 = lenN (sg_entries sg)).
Proof. exact group_lookup_gen_off_by_one_panics. Qed.
Print Assumptions C04_senc_group_lookup_off_by_one_exact.

(* with `idx >= len(entries)` the generalised text is total and extends the pinned one *)
Theorem C04_senc_group_lookup_gen_total : forall sb sg, sbgp_wf sb = true -> returns (group_lookup_gen true sb sg).
Proof. exact group_lookup_gen_strict_total. Qed.
Print Assumptions C04_senc_group_lookup_gen_total.

Theorem C04_senc_group_lookup_gen_extends : forall strict sb sg iv,
  group_lookup sb sg = Ok iv -> group_lookup_gen strict sb sg = Ok iv.
Proof. exact group_lookup_gen_extends. Qed.
Print Assumptions C04_senc_group_lookup_gen_extends.

(* the whole moof case: for every moov context, moof position and list of trafs whose boxes the decoders can produce
   (xtraf_wf: parallel sbgp slices, every senc passed the first-phase guard 2*count <= len(rawData)), with any saio
   offsets, any group description indices, any track ids, any number of senc / PIFF senc children *)
Theorem C04_senc_pass_x_total : forall moov ms trafs,
  forallb xtraf_wf trafs = true -> returns (moof_senc_pass_x moov ms trafs).
Proof. exact moof_senc_pass_x_total. Qed.
Print Assumptions C04_senc_pass_x_total.

(* moof_enc.m4s in the abstract: one sbgp entry (96 samples, index 65537), a one-entry seig sgpd (IV size 8): the lookup
   gives 8; the same with index 65538 is an error of the pinned text and an out-of-range access of the off-by-one text;
   the hypotheses are satisfiable by a traf with saio, sbgp, sgpd and a senc with sub-sample data *)
Example ex_xref_traf : xtraf :=
  mkXT (Some 1) (Some [184]) (Some (sbgp_decoded true [(2, 65537)])) (Some (mkSgpd true [SGSeig 8]))
       [mkSenc false 168 2 2 [1;1;1;1;1;1;1;1;0;0; 2;2;2;2;2;2;2;2;0;1;0;10;0;0;0;100]].
Example ex_xref_lookup :
  group_lookup (sbgp_decoded true [(96, 65537)]) (mkSgpd true [SGSeig 8]) = Ok 8 /\
  group_lookup (sbgp_decoded true [(96, 65538)]) (mkSgpd true [SGSeig 8]) = Err /\
  group_lookup_gen false (sbgp_decoded true [(96, 65538)]) (mkSgpd true [SGSeig 8]) = Panic /\
  group_lookup_gen true (sbgp_decoded true [(96, 65538)]) (mkSgpd true [SGSeig 8]) = Err /\
  xtraf_wf ex_xref_traf = true /\
  moof_senc_pass_x None 0 [ex_xref_traf] = Ok [Some (2, 2, 8)] /\
  moof_senc_pass_x (Some [(Some 1, EAV true (Some 8))]) 0 [ex_xref_traf] = Ok [Some (2, 2, 8)] /\
  moof_senc_pass_x (Some [(Some 1, EAV false None)]) 0 [ex_xref_traf] = Ok [None] /\
  moof_senc_pass_x None 1 [ex_xref_traf] = Err.
Proof. vm_compute. repeat split; reflexivity. Qed.

(* ---- (h) Info of the table boxes (mp4/infodumper.go getInfoLevel; the Info bodies of stsc trun senc tfra sidx saiz ctts
        stts sbgp saio stsz stss stco co64 elst sdtp subs).  A state ibox carries the lengths of the slices the text
        ranges over or indexes (parallel slices separately); info_lines = number of lines written, Panic at an index
        expression out of range; ibox_wf = the relations between those lengths that the decoders establish
        (C04_info_decoded_wf: state_of_box is the state DecodeBox / DecodeBoxSR leave, through the prologue models).
        For EVERY well-formed state and EVERY level (any int, from any specificBoxLevels token list) Info returns and
        writes at most Size() + 1030 lines (1030: a trun without per-sample fields may hold 1024 samples in 16 bytes). ---- *)
Theorem C04_info_total : forall b level, ibox_wf b = true ->
  exists n, info_lines b level = Ok n /\ n <= isize b + 1030.
Proof. exact info_total. Qed.
Print Assumptions C04_info_total.

Theorem C04_info_total_levels : forall b bt toks, ibox_wf b = true ->
  exists n, info_lines b (get_info_level bt toks) = Ok n /\ n <= isize b + 1030.
Proof. exact info_total_levels. Qed.
Print Assumptions C04_info_total_levels.

Theorem C04_info_decoded_wf : forall sr bs st, state_of_box sr bs = Some (Some st) -> ibox_wf st = true.
Proof. exact state_of_box_wf. Qed.
Print Assumptions C04_info_decoded_wf.

Theorem C04_info_decoded_total : forall sr bs st bt toks, state_of_box sr bs = Some (Some st) ->
  exists n, info_lines st (get_info_level bt toks) = Ok n /\ n <= isize st + 1030.
Proof. exact info_decoded_total. Qed.
Print Assumptions C04_info_decoded_total.

(* a senc parsed by the second pass (C04XrefModel.parse_read_senc_x -> senc_parse): the state ParseReadBox leaves - perSampleIVSize
   given, inferred, or the first of 0 / 8 / 16 that parses; one IV per sample when it is > 0; one SubSamples entry per sample with
   the counts read by parseAndFillSamples; the data consumed exactly - satisfies the relations (derived from senc_fill_loop by
   induction: C04InfoSencProofs), so Info prints it at every level *)
Theorem C04_info_senc_parsed_total : forall fl cnt raw iv nivs nsub al it level,
  senc_parse fl cnt raw iv = Ok (true, nivs, nsub, al, it) ->
  exists st, senc_parsed_state fl cnt raw iv = Some st /\ ibox_wf st = true /\
             exists n, info_lines st level = Ok n /\ n <= isize st + 1030.
Proof.
  intros fl cnt raw iv nivs nsub al it level H.
  destruct (senc_parsed_state_defined fl cnt raw iv nivs nsub al it H) as (st & E & W).
  exists st. split; [exact E|]. split; [exact W|]. exact (info_total st level W).
Qed.
Print Assumptions C04_info_senc_parsed_total.

(* without the relations (API-built boxes with parallel slices of different lengths) the loops index out of range at
   level >= 1 and print at level 0; for stts exactly when SampleTimeDelta is the shorter slice *)
Theorem C04_info_wf_needed :
  info_lines (IStts 2 1) 1 = Panic /\ info_lines (ICtts 1 1) 1 = Panic /\ info_lines (ISbgp 0 2 1) 1 = Panic /\
  info_lines (IStsc 2 0 1) 1 = Panic /\ info_lines (ISaiz 0 0 3 2) 1 = Panic /\
  info_lines (ISenc 0 2 8 1 [] 16) 1 = Panic /\ info_lines (ISenc 2 2 0 0 [1] 20) 1 = Panic /\
  info_lines (IStts 2 1) 0 = Ok 2 /\ info_lines (ISenc 2 2 0 0 [1] 20) 0 = Ok 3.
Proof. exact info_wf_needed. Qed.
Print Assumptions C04_info_wf_needed.

Theorem C04_info_stts_panics_iff : forall counts deltas level, (1 <= level)%Z ->
  (info_lines (IStts counts deltas) level = Panic <-> deltas < counts).
Proof. exact info_stts_panics_iff. Qed.
Print Assumptions C04_info_stts_panics_iff.

(* stsc with ids 1,2 (28 + 12 bytes): the decoder allocates SampleDescriptionID; trun with 2 samples and sizes; a parsed senc *)
Example ex_info_stsc : list N :=
  [0;0;0;40;115;116;115;99; 0;0;0;0; 0;0;0;2; 0;0;0;1;0;0;0;1;0;0;0;1; 0;0;0;2;0;0;0;1;0;0;0;2].
Example ex_info_states :
  state_of_box true ex_info_stsc = Some (Some (IStsc 2 0 2)) /\ ibox_wf (IStsc 2 0 2) = true /\
  info_lines (IStsc 2 0 2) 1 = Ok 4 /\ info_lines (IStsc 2 0 2) 0 = Ok 2 /\
  get_info_level [115;116;115;99] [([97;108;108], Some 0%Z); ([115;116;115;99], Some 2%Z)] = 2%Z /\
  get_info_level [115;116;115;99] [([115;116;115;99], None); ([97;108;108], Some 2%Z)] = 0%Z /\
  senc_parsed_state 2 2 [1;1;1;1;1;1;1;1;0;0; 2;2;2;2;2;2;2;2;0;1;0;10;0;0;0;100] 8 = Some (ISenc 2 2 8 2 [0;1] 26) /\
  info_lines (ISenc 2 2 8 2 [0;1] 26) 1 = Ok 6.
Proof. vm_compute. repeat split; reflexivity. Qed.

(* ---- (i) sidx, subs, pssh as leaves of the tree theorem.  They have no size guard: on the SliceReader path the position they
        leave the shared reader at and the Size() they report are functions of the CONTENT (sidx_run / subs_total / pssh_run keep
        the final reader state and Size()).  What this means for the property:
        - an ACCEPTED box costs at most 6 per byte it consumed (C04_unguarded_leaf_cost, first clause): sidx 17 per 12-byte
          reference, subs 13 n + 33 per entry of 6 + 8 n bytes, pssh 41 per 16-byte KID;
        - a REJECTED box costs at most 6 per byte seen + 1114095 = 17 * 65535: a 32-byte sidx whose 16-bit reference_count says
          65535 appends 65535 16-byte SidxRef (1 MiB) before it returns the reader's sticky error; a subs entry whose 16-bit
          subsample_count says 65535 appends 65535 12-byte entries (786 KiB) before the error check.  No count of these boxes
          is used for a make(): the allocation is bounded by a constant that does not grow with the input, and the error ends
          the whole decode, so it is paid ONCE.  It is not a finding (the property allows a*len + b).
        Hence the tree theorem with these leaves has the SAME factor and a constant larger by that one-time cost: two-constant
        leaf contract leaf_ok3 (a box: 7 * consumed + 20700; an error: 7 * remaining + 1200000), an instance like leaf_ok2 of the
        contract with parameters for which C04ContainerProofs proves both child loops. ---- *)
Theorem C04_unguarded_leaf_cost : forall t body, unguarded t = true ->
  exists o e sz, run_x t body = Ok (o, e, sz) /\ r_pos e <= lenN body /\
    (o_ok o = true -> o_alloc o + o_iters o <= 6 * r_pos e) /\
    o_alloc o + o_iters o <= 6 * lenN body + 1114095.
Proof. exact run_x_ok. Qed.
Print Assumptions C04_unguarded_leaf_cost.

(* the runs are the prologue models of C04_alloc_sidx / _subs / _pssh with the final state kept *)
Theorem C04_unguarded_runs_are_prologues : forall hs hl body,
  alloc_sidx hs hl body = Ok (fst (fst (sidx_run body))) /\
  alloc_pssh hs hl body = Ok (fst (fst (pssh_run body))) /\
  alloc_subs hs hl body = match subs_total body with Ok (o, _, _) => Ok o | Err => Err | Panic => Panic | OutOfFuel => OutOfFuel end.
Proof. intros. split; [apply sidx_run_alloc | split; [apply pssh_run_alloc | apply subs_total_alloc]]. Qed.
Print Assumptions C04_unguarded_runs_are_prologues.

Theorem C04_tree_alloc_unguarded : forall other, leaf_ok other -> forall bs, small32 bs = true ->
  (exists r s', box_sr (mixx_leaves other) bs = (r, s') /\ (r = Err \/ exists t, r = Ok t) /\
                (alloc (scost s') <= 2600 * lenN bs + 1200040)%N /\ (ticks (scost s') <= 2600 * lenN bs + 1200040)%N) /\
  (exists r s', box_r (mixx_leaves other) bs = (r, s') /\ (r = Err \/ r = Ok BEof \/ exists t, r = Ok (BBox t)) /\
                (alloc (icost s') <= 2601 * lenN bs + 1200071)%N /\ (ticks (icost s') <= 2601 * lenN bs + 1200071)%N).
Proof. exact treex_alloc. Qed.
Print Assumptions C04_tree_alloc_unguarded.

Theorem C04_container_total3_sr : forall ld, leaf_ok3 ld -> forall bs, small32 bs = true ->
  exists r s', box_sr ld bs = (r, s') /\ (r = Err \/ exists t, r = Ok t) /\
               (tot (scost s') <= 2600 * lenN bs + 1200040)%N.
Proof. exact treex_total_sr. Qed.
Print Assumptions C04_container_total3_sr.

Theorem C04_container_total3_r : forall ld, leaf_ok3 ld -> forall bs, small32 bs = true ->
  exists r s', box_r ld bs = (r, s') /\ (r = Err \/ r = Ok BEof \/ exists t, r = Ok (BBox t)) /\
               (tot (icost s') <= 2601 * lenN bs + 1200071)%N.
Proof. exact treex_total_r. Qed.
Print Assumptions C04_container_total3_r.

Theorem C04_unguarded_leaves_ok : forall other, leaf_ok other -> leaf_ok3 (mixx_leaves other).
Proof. exact mixx_leaves_ok3. Qed.
Print Assumptions C04_unguarded_leaves_ok.

(* a sidx box that announces 8 bytes and one reference: on the SliceReader path it is accepted, reads 44 bytes and reports
   Size() = 44; on the io.Reader path (readBoxBody: an empty payload) it is an error.  A 32-byte sidx whose reference_count is
   65535 requests 1048560 bytes and is an error. *)
Example ex_sidx_beyond_box : list N :=
  [0;0;0;8;115;105;100;120; 0;0;0;0; 0;0;0;1; 0;0;3;232; 0;0;0;0; 0;0;0;0; 0;0;0;1; 0;0;0;100; 0;0;3;232; 144;0;0;0].
Example ex_sidx_count_65535 : list N :=
  [0;0;0;32;115;105;100;120; 0;0;0;0; 0;0;0;1; 0;0;3;232; 0;0;0;0; 0;0;0;0; 0;0;255;255].
Example ex_unguarded :
  leaf_ok std_leaves /\ small32 ex_sidx_beyond_box = true /\
  (match box_sr tblx_leaves ex_sidx_beyond_box with (Ok t, s) => tsize t = 44%N /\ rpos (sr s) = 44%Z /\ alloc (scost s) = 16%N | _ => False end) /\
  fst (box_r tblx_leaves ex_sidx_beyond_box) = Err /\
  (match box_sr tblx_leaves ex_sidx_count_65535 with (Err, s) => alloc (scost s) = 1048560%N | _ => False end).
Proof. split; [exact std_leaves_ok|]. vm_compute. repeat split; reflexivity. Qed.
