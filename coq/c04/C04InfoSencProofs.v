(* C04InfoSencProofs.v — the state SencBox.ParseReadBox leaves satisfies the relations Info relies on:
   derived from the loops of C04AllocModel.senc_parse / senc_fill_loop (parseAndFillSamples). *)
From V.lib Require Import Base.
From V.c04 Require Import C04AllocModel C04AllocProofs C04XrefModel C04InfoModel C04InfoProofs.
Open Scope N_scope.

Section SencState.
Ltac Zify.zify_convert_to_euclidean_division_equations_flag ::= constr:(false).   (* no goal in this section is about a quotient *)

(* one successful run of parseAndFillSamples from sample i: the sub-sample counts it reads are those of
   senc_sub_counts, one IV per sample when iv > 0, and the reader advances by exactly the bytes of the samples *)
Lemma senc_fill_loop_ok raw iv cnt : forall fuel i s nIV al it nIV' al' it' s',
  senc_fill_loop raw fuel iv cnt i s nIV al it = Ok (true, nIV', al', it', s') ->
  i <= cnt -> r_err s = false -> r_pos s <= lenN raw ->
  forall fuel2 : nat, (N.to_nat (cnt - i) <= fuel2)%nat ->
  let subs := senc_sub_counts raw fuel2 iv cnt i s in
  lenN subs = cnt - i /\
  nIV' = nIV + (if 0 <? iv then cnt - i else 0) /\
  r_pos s' = r_pos s + (cnt - i) * iv + 2 * (cnt - i) + 6 * sumN subs /\
  r_err s' = false /\ r_pos s' <= lenN raw.
Proof.
  induction fuel as [|f IH]; intros i s nIV al it nIV' al' it' s' H Hi He Hp fuel2 Hf; cbn [senc_fill_loop] in H; [discriminate|].
  destruct (cnt <=? i) eqn:Ec.
  { injection H as <- <- <- <-. bools. assert (i = cnt) as -> by lia.
    replace (cnt - cnt) with 0 by lia.
    assert (Hs : senc_sub_counts raw fuel2 iv cnt cnt s = []).
    { destruct fuel2; cbn [senc_sub_counts]; [reflexivity|]. rewrite N.leb_refl. reflexivity. }
    cbn zeta. rewrite Hs. rewrite lenN_nil. unfold sumN. cbn [fold_right].
    destruct (0 <? iv); repeat split; try lia; assumption. }
  bools.
  destruct ((0 <? iv) && (rem_of raw s <? iv)) eqn:Eg; [discriminate|].
  (* the IV: the guard has checked that it fits *)
  set (s1 := if 0 <? iv then rd_skip raw iv s else s) in *.
  assert (S1 : r_err s1 = false /\ r_pos s1 = r_pos s + iv /\ r_pos s1 <= lenN raw).
  { subst s1. destruct (0 <? iv) eqn:Ei.
    - cbn [andb] in Eg. unfold rem_of in Eg. bools.
      pose proof (step_skip raw iv s) as (_ & In & Ok1 & F). specialize (F He ltac:(lia)). destruct (Ok1 F) as [_ P].
      repeat split; [exact F|exact P|exact (In Hp)].
    - bools. assert (iv = 0) as -> by lia. repeat split; auto; lia. }
  destruct S1 as (E1 & P1 & L1).
  assert (H2 : exists nIV0 al0,
     nIV0 = nIV + (if 0 <? iv then 1 else 0) /\
     (if rem_of raw s1 <? 2 then Ok (false, nIV0, al0, it + 1, s1)
      else let '(ssc, s2) := rd_n raw 2 s1 in
           if rem_of raw s2 <? ssc * 6 then Ok (false, nIV0, al0, it + 1, s2)
           else senc_fill_loop raw f iv cnt (i + 1) (rd_loop raw ssc 6 s2) nIV0 (al0 + 8 * ssc) (it + 1 + ssc))
     = Ok (true, nIV', al', it', s')).
  { subst s1. destruct (0 <? iv); [exists (nIV + 1), (al + 24) | exists nIV, al]; (split; [lia | exact H]). }
  clear H. destruct H2 as (nIV0 & al0 & HnIV & H).
  (* the count and the sub-samples: checked against the bytes left before they are read *)
  destruct (rem_of raw s1 <? 2) eqn:E2; [discriminate|]. unfold rem_of in E2. bools.
  pose proof (step_n raw 2 s1) as (_ & _ & Ok2 & F2). specialize (F2 E1 ltac:(lia)).
  destruct (rd_n raw 2 s1) as [ssc s2] eqn:Er. cbn [snd] in Ok2, F2. destruct (Ok2 F2) as [_ P2].
  destruct (rem_of raw s2 <? ssc * 6) eqn:E3; [discriminate|]. unfold rem_of in E3. bools.
  pose proof (step_loop raw ssc 6 s2) as (_ & _ & Ok3 & F3). specialize (F3 F2 ltac:(lia)). destruct (Ok3 F3) as [_ P3].
  (* the sub-sample counts of the specification function take the same steps *)
  destruct fuel2 as [|f2]; [lia|].
  cbn [senc_sub_counts]. destruct (cnt <=? i) eqn:Ec2; [bools; lia|].
  fold s1. rewrite Er.
  specialize (IH (i + 1) (rd_loop raw ssc 6 s2) nIV0 (al0 + 8 * ssc) (it + 1 + ssc) nIV' al' it' s' H ltac:(lia) F3 ltac:(lia) f2 ltac:(lia)).
  cbn zeta in IH. destruct IH as (I1 & I2 & I3 & I4 & I5).
  cbn zeta. rewrite lenN_cons. unfold sumN in *. cbn [fold_right].
  split; [lia|]. split; [destruct (0 <? iv); lia|]. split; [|split; assumption].
  rewrite I3, P3, P2, P1. replace (cnt - i) with (cnt - (i + 1) + 1) by lia. lia.
Qed.

Lemma senc_fill_ok raw iv cnt a b al it : senc_fill raw iv cnt = Ok (true, a, b, al, it) ->
  let subs := senc_sub_counts raw (N.to_nat cnt) iv cnt 0 rd0 in
  b = cnt /\ a = (if 0 <? iv then cnt else 0) /\ lenN subs = cnt /\ cnt * iv + 2 * cnt + 6 * sumN subs = lenN raw.
Proof.
  unfold senc_fill.
  destruct (senc_fill_loop raw (S (length raw)) iv cnt 0 rd0 0 (24 * cnt) 0) as [[[[[ok nIV] al0] it0] s]| | |] eqn:E; try discriminate.
  destruct ok; cbn [negb orb]; [|discriminate].
  destruct (rem_of raw s =? 0) eqn:Er; cbn [negb]; [|discriminate].
  intros [= <- <- <- <-].
  pose proof (senc_fill_loop_ok raw iv cnt _ _ _ _ _ _ _ _ _ _ E ltac:(lia) eq_refl ltac:(cbn; lia) (N.to_nat cnt) ltac:(lia)) as H.
  cbn zeta in H. rewrite N.sub_0_r in H. destruct H as (H1 & H2 & H3 & H4 & H5).
  unfold rem_of in Er. bools. cbn [r_pos rd0] in H3. cbn zeta.
  repeat split; try assumption; try lia; destruct (0 <? iv); lia.
Qed.

Lemma senc_parsed_wf fl cnt raw iv_in nivs nsub al it :
  senc_parse fl cnt raw iv_in = Ok (true, nivs, nsub, al, it) ->
  ibox_wf (ISenc fl cnt (senc_iv_used fl cnt raw iv_in) nivs
                 (if has fl 2 then senc_sub_counts raw (N.to_nat cnt) (senc_iv_used fl cnt raw iv_in) cnt 0 rd0 else [])
                 (lenN raw)) = true.
Proof.
  unfold senc_parse, senc_iv_used.
  destruct ((cnt =? 0) || (lenN raw =? 0)) eqn:E0; [discriminate|].
  apply orb_false_iff in E0. destruct E0 as (Ec & El). bools.
  destruct (has fl 2) eqn:Ef; cbn [negb].
  - (* sub-sample encryption: parseAndFillSamples *)
    assert (Hfin : forall iv a b al' it', senc_fill raw iv cnt = Ok (true, a, b, al', it') ->
              ibox_wf (ISenc fl cnt iv a (senc_sub_counts raw (N.to_nat cnt) iv cnt 0 rd0) (lenN raw)) = true).
    { intros iv a b al' it' H. destruct (senc_fill_ok raw iv cnt a b al' it' H) as (_ & Ha & Hl & Hs).
      cbn [ibox_wf]. unfold senc_sub. rewrite Ef. cbn [orb negb].
      apply andb_true_iff. split; [apply andb_true_iff; split|].
      - destruct (iv =? 0) eqn:Ei; [reflexivity|]. bools. cbn [orb]. apply N.leb_le. rewrite Ha.
        destruct (0 <? iv) eqn:E; bools; lia.
      - apply N.eqb_eq. exact Hl.
      - apply N.leb_le. lia. }
    destruct (iv_in =? 0) eqn:Ei; cbn [negb].
    + destruct (senc_fill raw 0 cnt) as [[[[[ok0 a0] b0] al0] it0]| | |] eqn:F0; try discriminate.
      destruct ok0.
      * intros [= <- <- <- <-]. eapply Hfin. exact F0.
      * destruct (senc_fill raw 8 cnt) as [[[[[ok1 a1] b1] al1] it1]| | |] eqn:F1; try discriminate.
        destruct ok1.
        -- intros [= <- <- <- <-]. eapply Hfin. exact F1.
        -- destruct (senc_fill raw 16 cnt) as [[[[[ok2 a2] b2] al2] it2]| | |] eqn:F2; try discriminate.
           intros [= -> <- <- <- <-]. eapply Hfin. exact F2.
    + intros H. eapply Hfin. exact H.
  - (* no sub-samples: IVs only *)
    set (left := lenN raw mod 4294967296).
    assert (Hleft : left <= lenN raw) by (subst left; apply N.mod_le; discriminate).
    set (iv := if iv_in =? 0 then (left / cnt) mod 256 else iv_in).
    destruct (iv * cnt =? left) eqn:Eg; cbn [negb]; [|discriminate]. bools.
    cbn [ibox_wf]. unfold senc_sub. rewrite Ef. cbn [existsb orb negb].
    destruct (iv =? 0) eqn:Ei.
    + intros [= <- <- <- <-]. cbn [orb andb]. bools. rewrite Ei. apply N.leb_le. lia.
    + destruct ((iv =? 8) || (iv =? 16)); [|discriminate].
      intros [= <- <- <- <-]. cbn [orb]. rewrite N.leb_refl. cbn [andb]. apply N.leb_le. nia.
Qed.

(* the run-time check of senc_parsed_state never fails *)
Lemma senc_parsed_state_defined fl cnt raw iv_in nivs nsub al it :
  senc_parse fl cnt raw iv_in = Ok (true, nivs, nsub, al, it) ->
  exists st, senc_parsed_state fl cnt raw iv_in = Some st /\ ibox_wf st = true.
Proof.
  intros H. unfold senc_parsed_state. rewrite H. rewrite (senc_parsed_wf _ _ _ _ _ _ _ _ H).
  eexists. split; [reflexivity|]. exact (senc_parsed_wf _ _ _ _ _ _ _ _ H).
Qed.

End SencState.
