(* C04ReaderProofs.v — bits.FixedSliceReader: every method keeps 0 <= pos <= len and never panics
   under the caller guards; refutations without them. *)
From V.lib Require Import Base.
From V.c04 Require Import C04Model.
Open Scope Z_scope.

Section Reader.
Ltac Zify.zify_convert_to_euclidean_division_equations_flag ::= constr:(false).   (* w64_id rewrites its remainder away; no other goal in this section is about one *)

Lemma w64_id z : - two63 <= z < two63 -> w64 z = z.
Proof. unfold w64, two63, two64. intros H. rewrite Z.mod_small; lia. Qed.

Lemma gslice_ok b lo hi : 0 <= lo -> lo <= hi -> hi <= zlen b -> exists l, gslice b lo hi = Ok l.
Proof.
  intros H1 H2 H3. unfold gslice.
  replace ((0 <=? lo) && (lo <=? hi) && (hi <=? zlen b))%bool with true by lia.
  eauto.
Qed.

Lemma gindex_ok b i : 0 <= i -> i < zlen b -> exists c, gindex b i = Ok c.
Proof.
  intros H1 H2. unfold gindex. replace ((0 <=? i) && (i <? zlen b))%bool with true by lia. eauto.
Qed.

Definition Inv (s : rstate) : Prop := 0 <= rpos s <= rlen s /\ rlen s < two63.
Lemma rinv_Inv s : rinv s = true <-> Inv s.
Proof. unfold rinv, Inv. lia. Qed.

(* result shape shared by all ops *)
Definition good (s : rstate) (r : rstate) : Prop := Inv r /\ rbuf r = rbuf s.

Lemma good_refl s : Inv s -> good s s.
Proof. split; auto. Qed.
Lemma good_err s : Inv s -> good s (with_err s).
Proof. unfold good, Inv, with_err, rlen. cbn. auto. Qed.
Lemma good_pos s p : Inv s -> 0 <= p <= rlen s -> good s (with_pos s p).
Proof. unfold good, Inv, with_pos, rlen. cbn. intros [H1 H2] H3. auto. Qed.

Lemma read_fixed_safe k s : Inv s -> 0 <= k ->
  exists v s', read_fixed k s = Ok (v, s') /\ good s s'.
Proof.
  intros HI Hk. unfold read_fixed.
  destruct (rerr s). { eexists _, _. split; [reflexivity|apply good_refl; assumption]. }
  destruct (rpos s >? rlen s - k) eqn:E.
  { eexists _, _. split; [reflexivity|apply good_err; assumption]. }
  destruct HI as [HI1 HI2].
  destruct (gslice_ok (rbuf s) (rpos s) (rpos s + k)) as [l Hl]; try (unfold rlen in *; lia).
  rewrite Hl. cbn [rbind]. eexists _, _. split; [reflexivity|].
  apply good_pos; [split; assumption|lia].
Qed.

Lemma read_fixed_string_safe n s : Inv s -> 0 <= n < two63 ->
  exists v s', read_fixed_string n s = Ok (v, s') /\ good s s'.
Proof.
  intros HI Hn. unfold read_fixed_string.
  destruct (rerr s). { eexists _, _. split; [reflexivity|apply good_refl; assumption]. }
  pose proof HI as [HI1 HI2].
  rewrite (w64_id (rlen s - n)) by (unfold two63 in *; lia).
  destruct (rpos s >? rlen s - n) eqn:E.
  { eexists _, _. split; [reflexivity|apply good_err; assumption]. }
  rewrite (w64_id (rpos s + n)) by (unfold two63 in *; lia).
  destruct (gslice_ok (rbuf s) (rpos s) (rpos s + n)) as [l Hl]; try (unfold rlen in *; lia).
  rewrite Hl. cbn [rbind]. eexists _, _. split; [reflexivity|].
  apply good_pos; [assumption|lia].
Qed.

Lemma read_bytes_safe n s : Inv s ->
  exists v s', read_bytes n s = Ok (v, s') /\ good s s'.
Proof.
  intros HI. unfold read_bytes.
  destruct (n <? 0) eqn:En. { eexists _, _. split; [reflexivity|apply good_err; assumption]. }
  destruct (rerr s). { eexists _, _. split; [reflexivity|apply good_refl; assumption]. }
  destruct (rpos s >? rlen s - n) eqn:E.
  { eexists _, _. split; [reflexivity|apply good_err; assumption]. }
  pose proof HI as [HI1 HI2].
  destruct (gslice_ok (rbuf s) (rpos s) (rpos s + n)) as [l Hl]; try (unfold rlen in *; lia).
  rewrite Hl. cbn [rbind]. eexists _, _. split; [reflexivity|].
  apply good_pos; [assumption|lia].
Qed.

Lemma zloop_safe fuel b start : forall pos maxPos,
  0 <= start <= pos -> pos <= zlen b -> maxPos <= zlen b -> maxPos - pos < Z.of_nat fuel -> 0 < Z.of_nat fuel ->
  exists r p, zloop fuel b start pos maxPos = Ok (r, p) /\ pos <= p <= zlen b.
Proof.
  induction fuel as [|f IH]; intros pos maxPos Hs Hp Hm Hf Hf0; [lia|].
  cbn [zloop]. destruct (pos >=? maxPos) eqn:E.
  { eexists _, _. split; [reflexivity|lia]. }
  destruct (gindex_ok b pos) as [c Hc]; try lia. rewrite Hc. cbn [rbind].
  destruct (c =? 0)%N.
  - destruct (gslice_ok b start pos) as [l Hl]; try lia. rewrite Hl. cbn [rbind].
    eexists _, _. split; [reflexivity|lia].
  - destruct (IH (pos + 1) maxPos) as [r [p [H1 H2]]]; try lia.
    rewrite H1. eexists _, _. split; [reflexivity|lia].
Qed.

Lemma read_zstring_safe m s : Inv s ->
  exists v s', read_zstring m s = Ok (v, s') /\ good s s'.
Proof.
  intros HI. unfold read_zstring.
  destruct (rerr s). { eexists _, _. split; [reflexivity|apply good_refl; assumption]. }
  pose proof HI as [HI1 HI2].
  set (maxPos := if w64 (rpos s + m) >? rlen s then rlen s else w64 (rpos s + m)).
  assert (Hmax : maxPos <= rlen s) by (subst maxPos; destruct (w64 (rpos s + m) >? rlen s) eqn:E; lia).
  destruct (zloop_safe (S (length (rbuf s))) (rbuf s) (rpos s) (rpos s) maxPos) as [r [p [H1 H2]]];
    try (unfold rlen, zlen in *; lia).
  rewrite H1. cbn [rbind]. destruct r as [str|].
  - eexists _, _. split; [reflexivity|]. apply good_pos; [assumption|unfold rlen; lia].
  - eexists _, _. split; [reflexivity|]. unfold good, Inv, rlen, zlen in *; cbn; repeat split; try reflexivity; lia.
Qed.

Lemma pzloop_safe fuel b start : forall pos maxPos,
  0 <= start <= pos -> pos <= zlen b -> maxPos <= zlen b -> maxPos - pos < Z.of_nat fuel -> 0 < Z.of_nat fuel ->
  exists str ok p se, pzloop fuel b start pos maxPos = Ok (PZ str ok p se) /\ pos <= p <= zlen b.
Proof.
  induction fuel as [|f IH]; intros pos maxPos Hs Hp Hm Hf Hf0; [lia|].
  cbn [pzloop]. destruct (pos =? maxPos) eqn:E.
  { destruct (gslice_ok b start pos) as [l Hl]; try lia. rewrite Hl. cbn [rbind].
    eexists _, _, _, _. split; [reflexivity|lia]. }
  destruct (pos >? maxPos) eqn:E2.
  { eexists _, _, _, _. split; [reflexivity|lia]. }
  destruct (gindex_ok b pos) as [c Hc]; try lia. rewrite Hc. cbn [rbind].
  destruct (c =? 0)%N.
  - destruct (gslice_ok b start pos) as [l Hl]; try lia. rewrite Hl. cbn [rbind].
    eexists _, _, _, _. split; [reflexivity|lia].
  - destruct (IH (pos + 1) maxPos) as [str [ok [p [se [H1 H2]]]]]; try lia.
    rewrite H1. eexists _, _, _, _. split; [reflexivity|lia].
Qed.

Lemma read_pzstring_safe m s : Inv s -> is_int m = true -> (m < 0 \/ rpos s + m <= rlen s) ->
  exists v s', read_pzstring m s = Ok (v, s') /\ good s s'.
Proof.
  intros HI Hi Hg. unfold read_pzstring. pose proof HI as [HI1 HI2].
  unfold is_int in Hi.
  rewrite (w64_id (rpos s + m)) by (unfold two63 in *; lia).
  destruct (Z_lt_dec m 0) as [Hneg|Hpos].
  - (* maxPos < pos: second test of the first iteration *)
    cbn [pzloop]. replace (rpos s =? rpos s + m) with false by lia.
    replace (rpos s >? rpos s + m) with true by lia. cbn [rbind].
    eexists _, _. split; [reflexivity|]. unfold good, Inv, rlen, zlen in *; cbn; repeat split; try reflexivity; lia.
  - destruct (pzloop_safe (S (S (length (rbuf s)))) (rbuf s) (rpos s) (rpos s) (rpos s + m))
      as [str [ok [p [se [H1 H2]]]]]; try (unfold rlen, zlen in *; lia).
    rewrite H1. cbn [rbind]. eexists _, _. split; [reflexivity|].
    unfold good, Inv, rlen, zlen in *; cbn; repeat split; try reflexivity; lia.
Qed.

Lemma remaining_safe s : Inv s -> exists v s', remaining_bytes s = Ok (v, s') /\ good s s'.
Proof.
  intros HI. unfold remaining_bytes.
  destruct (rerr s). { eexists _, _. split; [reflexivity|apply good_refl; assumption]. }
  pose proof HI as [HI1 HI2].
  destruct (gslice_ok (rbuf s) (rpos s) (rlen s)) as [l Hl]; try (unfold rlen in *; lia).
  rewrite Hl. cbn [rbind]. eexists _, _. split; [reflexivity|]. apply good_pos; [assumption|lia].
Qed.

Lemma skip_safe n s : Inv s -> 0 <= n -> rpos s + n < two63 -> good s (skip_bytes n s).
Proof.
  intros HI Hn Ho. unfold skip_bytes. destruct (rerr s); [apply good_refl; assumption|].
  pose proof HI as [HI1 HI2].
  rewrite (w64_id (rpos s + n)) by (unfold two63 in *; lia).
  destruct (rpos s + n >? rlen s) eqn:E; [apply good_err; assumption|].
  apply good_pos; [assumption|lia].
Qed.

Lemma set_pos_safe p s : Inv s -> 0 <= p -> good s (set_pos p s).
Proof.
  intros HI Hp. unfold set_pos. destruct (p >? rlen s) eqn:E; [apply good_err; assumption|].
  apply good_pos; [assumption|lia].
Qed.

Lemma look_ahead_safe off dlen s : Inv s -> 0 <= off -> rpos s + off + Z.of_N dlen < two63 ->
  exists r, look_ahead off dlen s = Ok r.
Proof.
  intros HI Ho Hb. unfold look_ahead. pose proof HI as [HI1 HI2].
  rewrite (w64_id (rpos s + off)) by (unfold two63 in *; lia).
  rewrite (w64_id (rpos s + off + Z.of_N dlen)) by (unfold two63 in *; lia).
  destruct (rpos s + off + Z.of_N dlen >? rlen s) eqn:E; [eauto|].
  destruct (gslice_ok (rbuf s) (rpos s + off) (rlen s)) as [l Hl]; try (unfold rlen in *; lia).
  rewrite Hl. cbn [rbind]. eauto.
Qed.

Theorem reader_safe : forall s o, rinv s = true -> rguard s o = true ->
  exists v s', rstep s o = Ok (v, s') /\ rinv s' = true /\ rbuf s' = rbuf s.
Proof.
  intros s o HI HG. apply rinv_Inv in HI.
  assert (G : forall s', good s s' -> rinv s' = true /\ rbuf s' = rbuf s).
  { intros s' [H1 H2]. split; [apply rinv_Inv; assumption|assumption]. }
  destruct o; cbn [rstep rguard] in *;
    try (match goal with
         | |- context [read_fixed ?k s] =>
             destruct (read_fixed_safe k s HI ltac:(lia)) as [v [s' [H1 H2]]]; rewrite H1; cbn [rbind fst snd];
             eexists _, _; split; [reflexivity|apply G; assumption]
         end).
  - destruct (read_fixed_string_safe n s HI ltac:(lia)) as [v [s' [H1 H2]]]. rewrite H1. cbn [rbind fst snd].
    eexists _, _. split; [reflexivity|apply G; assumption].
  - destruct (read_zstring_safe m s HI) as [v [s' [H1 H2]]]. rewrite H1. cbn [rbind fst snd].
    eexists _, _. split; [reflexivity|apply G; assumption].
  - apply andb_prop in HG. destruct HG as [G1 G2].
    destruct (read_pzstring_safe m s HI G1 ltac:(lia)) as [v [s' [H1 H2]]]. rewrite H1. cbn [rbind fst snd].
    eexists _, _. split; [reflexivity|apply G; assumption].
  - destruct (read_bytes_safe n s HI) as [v [s' [H1 H2]]]. rewrite H1. cbn [rbind fst snd].
    eexists _, _. split; [reflexivity|apply G; assumption].
  - destruct (remaining_safe s HI) as [v [s' [H1 H2]]]. rewrite H1. cbn [rbind fst snd].
    eexists _, _. split; [reflexivity|apply G; assumption].
  - eexists _, _. split; [reflexivity|apply G, good_refl; assumption].
  - eexists _, _. split; [reflexivity|apply G, skip_safe; [assumption|lia|lia]].
  - eexists _, _. split; [reflexivity|apply G, set_pos_safe; [assumption|lia]].
  - eexists _, _. split; [reflexivity|apply G, good_refl; assumption].
  - eexists _, _. split; [reflexivity|apply G, good_refl; assumption].
  - destruct (look_ahead_safe off dlen s HI ltac:(lia) ltac:(lia)) as [r Hr]. rewrite Hr. cbn [rbind].
    eexists _, _. split; [reflexivity|apply G, good_refl; assumption].
  - eexists _, _. split; [reflexivity|apply G, good_refl; assumption].
Qed.

(* whole histories: guards are checked against the state each op is applied to *)
Fixpoint guards_ok (s : rstate) (ops : list rop) : bool :=
  match ops with
  | [] => true
  | o :: t => rguard s o && match rstep s o with Ok (_, s') => guards_ok s' t | _ => false end
  end.

Theorem reader_history_safe : forall ops s, rinv s = true -> guards_ok s ops = true ->
  exists vs s', run_rops s ops = Ok (vs, s') /\ rinv s' = true /\ rbuf s' = rbuf s.
Proof.
  induction ops as [|o t IH]; intros s HI HG.
  - cbn. eexists _, _. split; [reflexivity|auto].
  - cbn [guards_ok] in HG. apply andb_prop in HG. destruct HG as [G1 G2].
    destruct (reader_safe s o HI G1) as [v [s' [H1 [H2 H3]]]].
    rewrite H1 in G2. cbn [run_rops]. rewrite H1. cbn [rbind fst snd].
    destruct (IH s' H2 G2) as [vs [s'' [K1 [K2 K3]]]]. rewrite K1. cbn [rbind fst snd].
    eexists _, _. split; [reflexivity|]. split; [assumption|congruence].
Qed.

(* ---- refutations: what happens without the guards *)
Definition s3 : rstate := mkR [1; 2; 3]%N 1 false.

Theorem reader_neg_refuted :
  rinv s3 = true /\
  rstep s3 (RFixedStr (-1)) = Panic /\                                  (* slice[1:0] *)
  rstep s3 (RPZStr 5) = Panic /\                                         (* index 3 of 3 *)
  rstep s3 (RLookAhead (-2) 1) = Panic /\                                (* slice[-1:] *)
  (exists s', rstep s3 (RSkip (-2)) = Ok (VUnit, s') /\ rinv s' = false /\ rstep s' RU8 = Panic) /\
  (exists s', rstep s3 (RSkip (two63 - 1)) = Ok (VUnit, s') /\ rinv s' = false /\ rstep s' RU8 = Panic) /\
  (exists s', rstep s3 (RSetPos (-1)) = Ok (VUnit, s') /\ rinv s' = false /\ rstep s' RU8 = Panic).
Proof.
  split; [reflexivity|]. split; [vm_compute; reflexivity|]. split; [vm_compute; reflexivity|].
  split; [vm_compute; reflexivity|].
  split; [eexists; split; [vm_compute; reflexivity|split; vm_compute; reflexivity]|].
  split; [eexists; split; [vm_compute; reflexivity|split; vm_compute; reflexivity]|].
  eexists; split; [vm_compute; reflexivity|split; vm_compute; reflexivity].
Qed.

End Reader.
