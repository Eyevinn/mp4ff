(* C04MfraProofs.v — findAndReadMfra over extended shapes never panics on the repaired text, for every
   list of shapes (any mfro position / ParentSize, any number of tfra boxes with any entry counts);
   the length comparison is what keeps the offset loop in range; agreement with C04AsmModel on the
   shapes it already had. *)
From V.lib Require Import Base.
From V.c04 Require Import C04AsmModel C04AsmProofs C04MfraModel.
Open Scope N_scope.

(* the offset loop stays in range when the later tfra has no more entries than the first has beyond j *)
Lemma offs_loop_np : forall other first j,
  (j + length other <= length first)%nat -> no_panic (offs_loop other first j).
Proof.
  induction other as [|o rest IH]; intros first j H; [exact I|].
  cbn [offs_loop]. cbn [length] in H.
  destruct (nth_error first j) as [f|] eqn:E.
  - destruct (o =? f); [|exact I]. apply IH. lia.
  - apply nth_error_None in E. lia.
Qed.

Lemma tfra_check_np first t : no_panic (tfra_check first t).
Proof.
  unfold tfra_check. destruct (fst t =? fst first); [exact I|].
  destruct (length (snd t) =? length (snd first))%nat eqn:E; cbn [negb]; [|exact I].
  apply Nat.eqb_eq in E. apply offs_loop_np. lia.
Qed.

Lemma tfras_loop_np first rest : no_panic (tfras_loop first rest).
Proof.
  induction rest as [|t r IH]; [exact I|]. cbn [tfras_loop].
  apply no_panic_bind; [apply tfra_check_np|intros; exact IH].
Qed.

(* without the length comparison the loop indexes the first tfra out of range as soon as a later tfra is
   longer (the smallest case: first tfra 0 entries, second 1 entry) *)
Lemma offs_loop_longer_panics : forall common extra more first,
  first = common -> offs_loop (common ++ extra :: more) first 0 = Panic.
Proof.
  intros common extra more first ->.
  assert (G : forall pre l, offs_loop (l ++ extra :: more) (pre ++ l) (length pre) = Panic).
  { intros pre l. revert pre. induction l as [|x l IH]; intros pre.
    - cbn [app offs_loop]. rewrite app_nil_r.
      replace (nth_error pre (length pre)) with (@None N); [reflexivity|].
      symmetry. apply nth_error_None. lia.
    - cbn [app offs_loop]. rewrite nth_error_app2 by lia. rewrite Nat.sub_diag. cbn [nth_error].
      rewrite N.eqb_refl.
      specialize (IH (pre ++ [x])). rewrite <- app_assoc in IH. cbn [app] in IH.
      rewrite app_length in IH. cbn [length] in IH. rewrite Nat.add_1_r in IH. exact IH. }
  exact (G [] common).
Qed.

Theorem find_mfra_x_np : forall boxes, no_panic (find_and_read_mfra_x true boxes).
Proof.
  intros boxes. unfold find_and_read_mfra_x.
  destruct (sumN (map snd boxes) <? 16); [exact I|].
  destruct (tail_mfro boxes) as [p|]; [|exact I].
  destruct (sumN (map snd boxes) <? p); [exact I|].
  destruct (look_at boxes (sumN (map snd boxes) - p)) as [|tfras|]; try exact I.
  destruct tfras as [|first rest]; [exact I|].
  apply no_panic_bind; [apply tfras_loop_np|intros; exact I].
Qed.

(* the result, when there is one, is the offset list of the FIRST tfra of an mfra found by the look-back, and every
   later tfra has another track id, as many entries and the same offsets *)
Lemma tfras_loop_spec first rest :
  tfras_loop first rest = if tfras_consistent first rest then Ok tt else Err.
Proof.
  induction rest as [|[tid offs] r IH]; [reflexivity|].
  cbn [tfras_loop tfras_consistent]. unfold tfra_check. cbn [fst snd].
  destruct (tid =? fst first); cbn [negb andb rbind]; [reflexivity|].
  destruct (length offs =? length (snd first))%nat eqn:E; cbn [negb andb rbind]; [|reflexivity].
  apply Nat.eqb_eq in E.
  assert (G : forall o f j pre, (length pre = j)%nat -> length o = length f ->
            offs_loop o (pre ++ f) j = if forallb (fun p => fst p =? snd p) (combine o f) then Ok tt else Err).
  { induction o as [|x o IHo]; intros f j pre Hj Hl; [reflexivity|].
    destruct f as [|y f]; [discriminate|]. cbn [offs_loop combine forallb fst snd].
    rewrite nth_error_app2 by lia. replace (j - length pre)%nat with 0%nat by lia. cbn [nth_error].
    destruct (x =? y); cbn [andb]; [|reflexivity].
    specialize (IHo f (S j) (pre ++ [y])). rewrite <- app_assoc in IHo. cbn [app] in IHo.
    apply IHo; [rewrite app_length; cbn [length]; lia|]. cbn [length] in Hl. lia. }
  pose proof (G offs (snd first) 0%nat [] eq_refl E) as G0. cbn [app] in G0. rewrite G0.
  destruct (forallb _ _); cbn [andb rbind]; [exact IH|reflexivity].
Qed.

Theorem assemble_x_ok : forall o boxes,
  res_post (fun f => init_ok f = true) (assemble_x true o boxes).
Proof. intros o boxes. exact (assemble_with_ok o _ (tops boxes) (find_mfra_x_np boxes)). Qed.

Theorem assembly_x_total : forall (o : opts) (boxes : list (xshape * N)),
  match assemble_x true o boxes with
  | Ok f => no_panic (info_file true f) /\ no_panic (encode_file true false f) /\ no_panic (encode_file true true f)
  | Err => True
  | Panic => False
  | OutOfFuel => False
  end.
Proof. intros o boxes. apply total_of_ok, assemble_x_ok. Qed.

(* ---- agreement with the shapes of C04AsmModel (boxes of positive size) *)
Lemma tops_embed boxes : tops (embed boxes) = boxes.
Proof.
  unfold tops, embed. rewrite map_map. induction boxes as [|[t s] r IH]; [reflexivity|].
  cbn [map fst snd top_of]. f_equal. exact IH.
Qed.

Lemma sizes_embed boxes : map snd (embed boxes) = map snd boxes.
Proof. unfold embed. rewrite map_map. reflexivity. Qed.

Lemma look_at_last : forall pre x sz,
  Forall (fun b => 0 < snd b) pre -> 0 < sz ->
  look_at (pre ++ [(x, sz)]) (sumN (map snd pre)) =
  match x with XTop (TMfra t) => LMfra t | XMfra t _ => LMfra t | _ => LNot end.
Proof.
  induction pre as [|[y s] r IH]; intros x sz HF Hs.
  - cbn [app map sumN look_at]. rewrite N.eqb_refl. reflexivity.
  - inversion HF as [|? ? Hy HF']; subst. cbn [snd] in Hy.
    cbn [app map sumN look_at snd].
    assert (E0 : (s + sumN (map snd r) =? 0) = false) by (apply N.eqb_neq; lia). rewrite E0.
    assert (E1 : (s + sumN (map snd r) <? s) = false) by (apply N.ltb_ge; lia). rewrite E1.
    replace (s + sumN (map snd r) - s) with (sumN (map snd r)) by lia.
    apply IH; assumption.
Qed.

Theorem find_mfra_x_embed : forall boxes, Forall (fun b => 0 < snd b) boxes ->
  find_and_read_mfra_x true (embed boxes) = find_and_read_mfra true boxes.
Proof.
  intros boxes HF. unfold find_and_read_mfra_x, find_and_read_mfra. rewrite sizes_embed.
  destruct (sumN (map snd boxes) <? 16) eqn:E16; [reflexivity|].
  unfold tail_mfro.
  destruct (rev boxes) as [|[t sz] rr] eqn:ER.
  - assert (boxes = []) by (rewrite <- (rev_involutive boxes), ER; reflexivity). subst. reflexivity.
  - assert (EB : boxes = rev rr ++ [(t, sz)]) by (rewrite <- (rev_involutive boxes), ER; reflexivity).
    assert (ERE : rev (embed boxes) = (XTop t, sz) :: rev (embed (rev rr))).
    { rewrite EB. unfold embed. rewrite map_app, rev_app_distr. reflexivity. }
    rewrite ERE.
    destruct t; try reflexivity.
    (* last box is an mfra *)
    assert (ES : sumN (map snd boxes) = sumN (map snd (rev rr)) + sz).
    { rewrite EB, map_app, sumN_app. cbn [map sumN snd]. lia. }
    assert (Hsz : 0 < sz).
    { rewrite EB in HF. apply Forall_app in HF. destruct HF as [_ HL]. inversion HL; subst. assumption. }
    assert (HP : Forall (fun b => 0 < snd b) (embed (rev rr))).
    { rewrite EB in HF. apply Forall_app in HF. destruct HF as [HL _].
      unfold embed. apply Forall_map. cbn [snd]. exact HL. }
    assert (EL : (sumN (map snd boxes) <? sz) = false) by (apply N.ltb_ge; lia). rewrite EL.
    replace (sumN (map snd boxes) - sz) with (sumN (map snd (embed (rev rr)))) by (rewrite sizes_embed; lia).
    rewrite EB. unfold embed at 1. rewrite map_app. cbn [map fst snd].
    change (map (fun b : topshape * N => (XTop (fst b), snd b)) (rev rr)) with (embed (rev rr)).
    rewrite (look_at_last (embed (rev rr)) (XTop (TMfra tfras)) sz HP Hsz).
    destruct tfras as [|first rest]; [reflexivity|].
    rewrite tfras_loop_spec. destruct (tfras_consistent first rest); reflexivity.
Qed.

Theorem assemble_x_embed : forall o boxes, Forall (fun b => 0 < snd b) boxes ->
  assemble_x true o (embed boxes) = assemble true o boxes.
Proof.
  intros o boxes HF. unfold assemble_x, assemble. rewrite tops_embed, find_mfra_x_embed by exact HF. reflexivity.
Qed.

(* ---- concrete instances: the 107-byte file (first tfra without entries, second with one) is an error;
        the same comparison without the length check would index out of range *)
Definition oISMx : opts := mkO false false true false.
Example mfra_two_tfras_0_1 :
  assemble_x true oISMx [(XMfra [(1, []); (2, [0])] (Some 107), 107)] = Err /\
  offs_loop [0] [] 0 = Panic.
Proof. split; vm_compute; reflexivity. Qed.

Example mfra_lookback_inside_mdat :
  find_and_read_mfra_x true [(XTop (TMoof []), 24); (XMdatMfra 4 [(1, [0])] (Some 67), 79)] = Ok (Some [0]).
Proof. vm_compute. reflexivity. Qed.

Example mfra_lookback_wrong_parent_size :
  find_and_read_mfra_x true [(XTop (TMoof []), 24); (XMfra [(1, [0])] (Some 66), 67)] = Err /\
  find_and_read_mfra_x true [(XTop (TMoof []), 24); (XMfra [(1, [0])] (Some 92), 67)] = Err /\
  find_and_read_mfra_x true [(XTop (TMoof []), 24); (XMfra [(1, [0])] (Some 91), 67)] = Err /\
  find_and_read_mfra_x true [(XTop (TMoof []), 24); (XMfra [(1, [0])] None, 51)] = Ok None /\
  find_and_read_mfra_x true [(XTop (TMoof []), 24); (XMfra [(1, [0])] None, 51); (XMfro 67, 16)] = Ok (Some [0]).
Proof. repeat split; vm_compute; reflexivity. Qed.
