(* C04ContainerProofs.v — box headers, DecodeBox / DecodeBoxSR and both container child loops:
   for every byte string the result is a box, EOF or an error, never Panic, fuel len+1 suffices, and the cost
   (ticks + alloc) is linear in the length.  Leaf bodies are opaque.  The loops are proved once, for a leaf contract
   whose constants are parameters (leaf_cost: so much per byte, so much per box, so much for an error);
   leaf_ok (cost <= consumed + 1) gives 2*len + 29 (SliceReader) / 6*len + 29 (io.Reader). *)
From V.lib Require Import Base.
From V.c04 Require Import C04Model C04ReaderProofs.
Open Scope Z_scope.

(* every case of the decoders below ends by naming the pair it returns *)
Ltac ret := eexists _, _; split; [reflexivity|].
(* a clause about a result of some form: the result at hand is of another form, or arithmetic decides *)
Ltac clause := first [intros; discriminate | intros; lia].

Section Container.
(* lia takes quotients and remainders as unknowns in this section; the one goal that is about the wrapping of
   uint64 / int says so: dlia *)
Ltac Zify.zify_convert_to_euclidean_division_equations_flag ::= constr:(false).
Ltac dlia := zify; Z.to_euclidean_division_equations; lia.

Definition np {A} (r : res A) : Prop := match r with Panic => False | OutOfFuel => False | _ => True end.
(* how a run on fuel ends: never in a panic, and out of fuel only when there was not enough *)
Definition ends {A} (enough : Prop) (r : res A) : Prop :=
  match r with Panic => False | OutOfFuel => ~ enough | _ => True end.
Lemma ends_mono {A} (P Q : Prop) (r : res A) : (P -> Q) -> ends Q r -> ends P r.
Proof. destruct r; cbn; auto. Qed.
Lemma ends_elim {A} (P : Prop) (r : res A) : ends P r -> r <> Panic /\ (P -> r <> OutOfFuel).
Proof. destruct r; cbn; intros H; split; try discriminate; tauto. Qed.
Definition T (c : cost) : Z := Z.of_N (tot c).
Definition rem (s : sst) : Z := rlen (sr s) - rpos (sr s).

Lemma T_tick n c : T (tick n c) = T c + Z.of_N n.
Proof. unfold T, tot, tick. cbn. lia. Qed.
Lemma T_alloc n c : T (allocn n c) = T c + Z.of_N n.
Proof. unfold T, tot, allocn. cbn. lia. Qed.

(* ---------------------------------------------------------------- exact behaviour of the fixed reads *)
Lemma read_fixed_spec k s : Inv s -> 0 <= k ->
  exists v s', read_fixed k s = Ok (v, s') /\ Inv s' /\ rbuf s' = rbuf s /\
    rpos s <= rpos s' /\ (rerr s' = false -> rpos s' = rpos s + k /\ rerr s = false).
Proof.
  intros HI Hk. unfold read_fixed. destruct (rerr s) eqn:Ee.
  { ret. repeat split; try apply HI; try lia; congruence. }
  destruct (rpos s >? rlen s - k) eqn:E.
  { ret. cbn. repeat split; try apply HI; try lia; discriminate. }
  destruct HI as [HI1 HI2].
  destruct (gslice_ok (rbuf s) (rpos s) (rpos s + k)) as [l Hl]; try (unfold rlen in *; lia).
  rewrite Hl. cbn [rbind]. ret.
  unfold Inv, with_pos, rlen in *. cbn. repeat split; try lia; assumption.
Qed.

(* ReadFixedLengthString(n) with 0 <= n computes in int without wrapping: it is the n-byte read *)
Lemma read_fixed_string_spec n s : Inv s -> 0 <= n < two63 ->
  exists v s', read_fixed_string n s = Ok (v, s') /\ Inv s' /\ rbuf s' = rbuf s /\
    rpos s <= rpos s' /\ (rerr s' = false -> rpos s' = rpos s + n /\ rerr s = false).
Proof.
  intros HI Hn. pose proof HI as [HI1 HI2].
  destruct (read_fixed_spec n s HI (proj1 Hn)) as (v & s' & E & H). revert E.
  unfold read_fixed_string, read_fixed.
  rewrite (w64_id (rlen s - n)) by (unfold two63 in *; lia).
  destruct (rerr s); [intros [= _ <-]; ret; exact H|].
  destruct (rpos s >? rlen s - n) eqn:G; [intros [= _ <-]; ret; exact H|].
  rewrite (w64_id (rpos s + n)) by (unfold two63 in *; lia).
  destruct (gslice (rbuf s) (rpos s) (rpos s + n)); cbn [rbind]; [|discriminate..].
  intros [= _ <-]. ret. exact H.
Qed.

(* ---------------------------------------------------------------- DecodeHeaderSR *)
Definition hdr_wf (h : hdr) : Prop := (hlen h = 8%N \/ hlen h = 16%N).

Lemma decode_header_sr_spec s : Inv (sr s) ->
  exists r s', decode_header_sr s = (r, s') /\ np r /\ Inv (sr s') /\ rbuf (sr s') = rbuf (sr s) /\
    rpos (sr s) <= rpos (sr s') /\ scost s' = scost s /\
    (forall h, r = Ok h -> rpos (sr s) + 8 <= rpos (sr s') /\ rerr (sr s') = false /\ hdr_wf h).
Proof.
  intros HI. unfold decode_header_sr.
  destruct (read_fixed_spec 4 (sr s) HI ltac:(lia)) as (size & r1 & -> & I1 & B1 & P1 & Q1).
  destruct (read_fixed_string_spec 4 r1 I1 ltac:(unfold two63; lia)) as (nm & r2 & -> & I2 & B2 & P2 & Q2).
  (* an error return satisfies everything but the clause about a header, which is then void *)
  assert (ERR : forall r3, Inv r3 -> rbuf r3 = rbuf r2 -> rpos r2 <= rpos r3 ->
            exists r s', (@Err hdr, mkS r3 (scost s)) = (r, s') /\ np r /\ Inv (sr s') /\ rbuf (sr s') = rbuf (sr s) /\
              rpos (sr s) <= rpos (sr s') /\ scost s' = scost s /\
              (forall h, r = Ok h -> rpos (sr s) + 8 <= rpos (sr s') /\ rerr (sr s') = false /\ hdr_wf h)).
  { intros r3 I3 B3 P3. ret. cbn [sr scost np]. repeat split; try apply I3; try congruence; try lia; intros; discriminate. }
  destruct (size =? 1)%N.
  - destruct (read_fixed_spec 8 r2 I2 ltac:(lia)) as (size2 & r3 & -> & I3 & B3 & P3 & Q3).
    destruct (size2 <? 16)%N; [auto|]. destruct (rerr r3) eqn:Ee; [auto|].
    destruct (Q3 eq_refl) as [Q3a Q3b]. destruct (Q2 Q3b) as [Q2a Q2b]. destruct (Q1 Q2b) as [Q1a _].
    ret. cbn [sr scost np]. split; [exact I|]. split; [exact I3|]. split; [congruence|]. split; [lia|]. split; [reflexivity|].
    intros h [= <-]. cbn [hlen]. repeat split; [lia|exact Ee|right; reflexivity].
  - destruct (size =? 0)%N; [auto using Z.le_refl|]. destruct (size <? 8)%N; [auto using Z.le_refl|].
    destruct (rerr r2) eqn:Ee; [auto using Z.le_refl|].
    destruct (Q2 eq_refl) as [Q2a Q2b]. destruct (Q1 Q2b) as [Q1a _].
    ret. cbn [sr scost np]. split; [exact I|]. split; [exact I2|]. split; [congruence|]. split; [lia|]. split; [reflexivity|].
    intros h [= <-]. cbn [hlen]. repeat split; [lia|exact Ee|left; reflexivity].
Qed.

(* ---------------------------------------------------------------- io.Reader: the byte source and DecodeHeader *)
Definition ip (s : ist) : Z := Z.of_N (ipos s).
Definition il (s : ist) : Z := Z.of_N (lenN (ibuf s)).
Definition IInv (s : ist) : Prop := ip s <= il s /\ il s < two63.

Lemma length_firstn_skipn (l : list N) a b : (length (firstn a (skipn b l)) <= length l)%nat.
Proof. rewrite firstn_length, skipn_length. lia. Qed.

Lemma read_full_spec s : IInv s ->
  exists r s', read_full 8 s = (r, s') /\ ibuf s' = ibuf s /\ icost s' = icost s /\ ip s <= ip s' <= il s /\
    match r with RFOk bs => ip s' = ip s + 8 /\ length bs = 8%nat | _ => True end.
Proof.
  intros [H1 H2]. unfold read_full, iavail, ip, il in *.
  destruct (lenN (ibuf s) - ipos s =? 0)%N eqn:E0.
  { ret. repeat split; lia. }
  destruct (lenN (ibuf s) - ipos s <? 8)%N eqn:E1.
  { ret. cbn. repeat split; lia. }
  ret. cbn. repeat split; try lia.
  rewrite firstn_length, skipn_length. unfold lenN in *. lia.
Qed.

Definition hout_hdr (r : res hout) (h : hdr) : Prop := r = Ok (HHdr h).

Lemma decode_header_spec s : IInv s ->
  exists r s', decode_header s = (r, s') /\ np r /\ ibuf s' = ibuf s /\ ip s <= ip s' <= il s /\
    T (icost s') <= T (icost s) + 16 /\
    (forall h, r = Ok (HHdr h) -> ip s + 8 <= ip s' /\ hdr_wf h).
Proof.
  intros HI. unfold decode_header.
  destruct (read_full_spec (icharge (allocn 8) s) HI) as (r & s1 & -> & B1 & C1 & P1 & Q1).
  cbn [icharge ibuf icost] in B1, C1. change (ip (icharge (allocn 8) s)) with (ip s) in *. change (il (icharge (allocn 8) s)) with (il s) in *.
  assert (T1 : T (icost s1) = T (icost s) + 8) by (rewrite C1; apply T_alloc).
  assert (HI1 : IInv s1) by (unfold IInv, il in *; rewrite B1; lia).
  (* every return that is not a header: nothing to show about one *)
  assert (NOHDR : forall r (s' : ist), (forall h, r <> Ok (HHdr h)) -> np r -> ibuf s' = ibuf s -> ip s <= ip s' <= il s ->
            T (icost s') <= T (icost s) + 16 ->
            exists r0 s0, (r, s') = (r0, s0) /\ np r0 /\ ibuf s0 = ibuf s /\ ip s <= ip s0 <= il s /\
              T (icost s0) <= T (icost s) + 16 /\ (forall h, r0 = Ok (HHdr h) -> ip s + 8 <= ip s0 /\ hdr_wf h)).
  { intros r0 s0 N ? ? ? ?. ret. repeat (split; [assumption|]). intros h Hh. destruct (N h Hh). }
  destruct r as [buf| |]; [|apply NOHDR; (discriminate || exact I || assumption || lia)..].
  destruct Q1 as [Q1 L1].
  destruct (gslice_ok buf 0 4) as [b4 ->]; try (unfold zlen; lia).
  destruct (gslice_ok buf 4 8) as [nm ->]; try (unfold zlen; lia).
  destruct (be b4 0 =? 1)%N.
  - destruct (read_full_spec (icharge (allocn 8) s1) HI1) as (r2 & s3 & -> & B3 & C3 & P3 & Q3).
    cbn [icharge ibuf icost] in B3, C3. change (ip (icharge (allocn 8) s1)) with (ip s1) in *. change (il (icharge (allocn 8) s1)) with (il s1) in *.
    assert (T3 : T (icost s3) = T (icost s) + 16) by (rewrite C3, T_alloc; lia).
    assert (L13 : il s1 = il s) by (unfold il; rewrite B1; reflexivity).
    assert (B31 : ibuf s3 = ibuf s) by congruence.
    destruct r2 as [buf2| |]; [|apply NOHDR; (discriminate || exact I || assumption || lia)..].
    destruct (be buf2 0 <? 16)%N; [apply NOHDR; (discriminate || exact I || assumption || lia)|].
    ret. split; [exact I|]. split; [assumption|]. split; [lia|]. split; [lia|].
    intros h [= <-]. cbn [hlen]. split; [lia|right; reflexivity].
  - destruct (be b4 0 =? 0)%N; [apply NOHDR; (discriminate || exact I || assumption || lia)|].
    destruct (be b4 0 <? 8)%N; [apply NOHDR; (discriminate || exact I || assumption || lia)|].
    ret. split; [exact I|]. split; [assumption|]. split; [lia|]. split; [lia|].
    intros h [= <-]. cbn [hlen]. split; [lia|left; reflexivity].
Qed.

Lemma read_limited_spec n s : IInv s ->
  exists data s', read_limited n s = (data, s') /\ ibuf s' = ibuf s /\ ip s <= ip s' <= il s /\
    zlen data = ip s' - ip s /\ T (icost s') = T (icost s) + (ip s' - ip s).
Proof.
  intros [H1 H2]. unfold read_limited. destruct (n <=? 0) eqn:E.
  { ret. unfold zlen. cbn. repeat split; lia. }
  ret. unfold ip, il, iavail, zlen in *. cbn [ibuf ipos icost].
  rewrite T_alloc. rewrite firstn_length, skipn_length. unfold lenN in *. repeat split; lia.
Qed.

(* ---------------------------------------------------------------- the leaf contract *)
Record leaf_ok (ld : leafdec) : Prop := mkLeafOk {
  leaf_sr_ok : forall h s, Inv (sr s) ->
    exists r s', ld_sr ld h s = (r, s') /\ np r /\ Inv (sr s') /\ rbuf (sr s') = rbuf (sr s) /\
      rpos (sr s) <= rpos (sr s') /\ T (scost s') <= T (scost s) + (rpos (sr s') - rpos (sr s)) + 1;
  leaf_r_ok : forall h s, (ipos s <= lenN (ibuf s))%N ->
    exists r s', ld_r ld h s = (r, s') /\ np r /\ ibuf s' = ibuf s /\
      (ipos s <= ipos s' <= lenN (ibuf s))%N /\
      T (icost s') <= T (icost s) + (Z.of_N (ipos s') - Z.of_N (ipos s)) + 1 }.

(* The contract with its constants as parameters.  What DecodeBoxSR has established when it calls a leaf decoder
   (the size check is skipped for mdat), on inputs shorter than B: *)
Definition leaf_pre (B : Z) (h : hdr) (s : sst) : Prop :=
  hdr_wf h /\ rerr (sr s) = false /\ rlen (sr s) < B /\
  (eqb_name (hname h) name_mdat = true \/ Z.of_N (hsize h) <= rem s + Z.of_N (hlen h)).

(* A leaf that returns a box costs at most a per byte it consumed, plus c.  One that returns an error may have
   worked on bytes it did not consume (a size guard that fails after the table was sized from the header): a per byte
   consumed, a' per byte left, plus e.  The error ends the whole decode, so a' and e are paid once. *)
Record leaf_cost (B a a' c e : Z) (ld : leafdec) : Prop := mkLeafCost {
  leaf_sr_cost : forall h s, Inv (sr s) -> leaf_pre B h s ->
    exists r s', ld_sr ld h s = (r, s') /\ np r /\ Inv (sr s') /\ rbuf (sr s') = rbuf (sr s) /\
      rpos (sr s) <= rpos (sr s') /\
      T (scost s') <= T (scost s) + a * (rpos (sr s') - rpos (sr s)) + a' * rem s' + e /\
      (forall sz, r = Ok sz -> T (scost s') <= T (scost s) + a * (rpos (sr s') - rpos (sr s)) + c);
  leaf_r_cost : forall h s, IInv s -> hdr_wf h -> il s < B ->
    exists r s', ld_r ld h s = (r, s') /\ np r /\ ibuf s' = ibuf s /\ ip s <= ip s' <= il s /\
      T (icost s') <= T (icost s) + a * (ip s' - ip s) + e /\
      (forall sz, r = Ok sz -> T (icost s') <= T (icost s) + a * (ip s' - ip s) + c) }.

Lemma leaf_ok_cost ld : leaf_ok ld -> leaf_cost two63 1 0 1 1 ld.
Proof.
  intros L. constructor.
  - intros h s HI _. destruct (leaf_sr_ok ld L h s HI) as (r & s' & E & NP & I1 & B1 & P1 & C1).
    exists r, s'. repeat (split; [assumption|]). split; [|intros _ _]; lia.
  - intros h s HI _ _. unfold IInv, ip, il in *.
    destruct (leaf_r_ok ld L h s ltac:(lia)) as (r & s' & E & NP & B1 & P1 & C1).
    exists r, s'. repeat (split; [assumption || lia|]). intros _ _. lia.
Qed.

(* ---------------------------------------------------------------- SR path *)
(* DecodeBoxSR: the box ends after the 8 bytes of its header at the earliest, and then costs at most k per byte
   it consumed, minus 2; in any case k per byte consumed, a' per byte left, plus E.  The child loop likewise. *)
Definition box_cost (k a' E : Z) (s : sst) (r : res tree) (s' : sst) : Prop :=
  Inv (sr s') /\ rbuf (sr s') = rbuf (sr s) /\ rpos (sr s) <= rpos (sr s') /\
  T (scost s') <= T (scost s) + k * (rpos (sr s') - rpos (sr s)) + a' * rem s' + E /\
  (forall t, r = Ok t -> rpos (sr s) + 8 <= rpos (sr s') /\
                         T (scost s') <= T (scost s) + k * (rpos (sr s') - rpos (sr s)) - 2).
Definition kids_cost (k a' E : Z) (s : sst) (r : res (list tree)) (s' : sst) : Prop :=
  Inv (sr s') /\ rbuf (sr s') = rbuf (sr s) /\ rpos (sr s) <= rpos (sr s') /\
  T (scost s') <= T (scost s) + k * (rpos (sr s') - rpos (sr s)) + a' * rem s' + E /\
  (forall l, r = Ok l -> T (scost s') <= T (scost s) + k * (rpos (sr s') - rpos (sr s)) + 3).

(* the size check of DecodeBoxSR, without the uint64 / int wrapping *)
Lemma maxsize_pre h s1 : Inv (sr s1) -> rerr (sr s1) = false -> hdr_wf h ->
  ((addu64 (u64z (nr_remaining (sr s1))) (hlen h) <? hsize h)%N && negb (eqb_name (hname h) name_mdat)) = false ->
  eqb_name (hname h) name_mdat = true \/ Z.of_N (hsize h) <= rem s1 + Z.of_N (hlen h).
Proof.
  intros HI Er W H. apply andb_false_iff in H. destruct H as [H|H].
  - right. apply N.ltb_ge in H. unfold nr_remaining in H. rewrite Er in H.
    unfold Inv in HI. unfold rem.
    rewrite w64_id in H by (unfold two63 in *; lia).
    unfold u64z, addu64, two64 in H.
    assert (Hl : (hlen h <= 16)%N) by (destruct W as [W|W]; rewrite W; lia).
    rewrite Z.mod_small in H by (unfold two63 in *; lia).
    rewrite N.mod_small in H by (unfold two63 in *; lia).
    lia.
  - left. apply negb_false_iff in H. exact H.
Qed.

Section SRLoops.
Variables (B a a' c e k : Z) (ld : leafdec).
Hypothesis LD : leaf_cost B a a' c e ld.
Hypotheses (Ha : 0 <= a <= k) (Ha' : 0 <= a') (He : 0 <= e) (Hk : 2 <= k) (Hck : c + 3 <= 8 * k).

(* The products of a rate and a distance that the case analysis needs; everything else is linear.
   A leaf's rate is covered by the loop's: *)
Lemma pay_a d : 0 <= d -> 0 <= a * d <= k * d.
Proof. intros. split; [apply Z.mul_nonneg_nonneg|apply Z.mul_le_mono_nonneg_r]; lia. Qed.
(* the 8 header bytes of a box pay for the constant of a leaf (with its tick and the 2 kept in hand), and for the 16 a
   container adds at most: its tick, its 8 child slots, and the 35 - 28 by which the error constant of a child loop
   exceeds that of a box *)
Lemma pay_hdr d : 8 <= d -> 16 <= k * d /\ c + 3 <= k * d.
Proof. intros. assert (k * 8 <= k * d) by (apply Z.mul_le_mono_nonneg_l; lia). lia. Qed.
Lemma pay_rest s : Inv (sr s) -> 0 <= a' * rem s.
Proof. intros [H _]. apply Z.mul_nonneg_nonneg; unfold rem; lia. Qed.

(* the last step of every case: the buffer is the same by the equations at hand, the rest is linear arithmetic on
   positions and costs, a whole conjunct at a time *)
Ltac fin := unfold box_cost, kids_cost, rem in *; cbn [scharge sr scost] in *; unfold Inv, rlen, err_msg_ticks in *;
  rewrite ?T_tick, ?T_alloc in *; split; [lia|]; split; [congruence|]; split; [lia|]; split; [lia|]; try clause.

Lemma sr_loops_cost : forall fuel,
  (forall sp s, Inv (sr s) -> rlen (sr s) < B ->
     exists r s', dec_box_sr ld fuel sp s = (r, s') /\ ends (rem s < Z.of_nat fuel) r /\ box_cost k a' (e + 28) s r s') /\
  (forall sp pos endPos initPos acc s, Inv (sr s) -> rlen (sr s) < B ->
     exists r s', children_sr ld fuel sp pos endPos initPos acc s = (r, s') /\ ends (rem s + 1 < Z.of_nat fuel) r /\
                  kids_cost k a' (e + 35) s r s').
Proof.
  induction fuel as [|f [IHb IHk]].
  { split; intros; pose proof (pay_rest s H); ret; (split; [cbn; unfold rem, Inv in *; lia|]); fin. }
  split.
  - (* dec_box_sr *)
    intros sp s0 HI HB. cbn [dec_box_sr]. fold (children_sr ld).
    destruct (decode_header_sr_spec (scharge (tick 1) s0) HI) as (rh & s1 & -> & NPh & I1 & B1 & P1 & C1 & Q1).
    cbn [scharge sr scost] in B1, P1, C1, Q1.
    assert (T1 : T (scost s1) = T (scost s0) + 1) by (rewrite C1; apply T_tick).
    assert (HB1 : rlen (sr s1) < B) by (unfold rlen in *; rewrite B1; exact HB).
    pose proof (pay_rest s1 I1) as R1. pose proof (pay_a (rpos (sr s1) - rpos (sr s0)) ltac:(lia)) as Y0. clear C1.
    destruct rh as [h| | |]; try contradiction.
    2:{ clear IHb IHk. ret. split; [exact I|]. fin. }
    destruct (Q1 h eq_refl) as (Q1a & Q1b & Q1c). clear Q1.
    destruct (pay_hdr (rpos (sr s1) - rpos (sr s0)) ltac:(lia)) as [Y1 Y2].
    destruct ((addu64 (u64z (nr_remaining (sr s1))) (hlen h) <? hsize h)%N && negb (eqb_name (hname h) name_mdat)) eqn:EM.
    { clear IHb IHk. ret. split; [exact I|]. fin. }
    pose proof (maxsize_pre h s1 I1 Q1b Q1c EM) as PRE. clear EM.
    (* a container: the child loop on what follows the header, with 8 bytes less and one unit of fuel less;
       a generic container is a moov (no look at the reader's error afterwards) *)
    assert (CONT : forall accerr, exists r s',
      match children_sr ld f (addu64 sp 8) (addu64 sp 8) (addu64 sp (hsize h)) (rpos (sr s1)) [] (scharge (allocn 8) s1) with
      | (Ok kids, s2) => if accerr && rerr (sr s2) then (Err, s2) else (Ok (Node (hname h) kids), s2)
      | (Err, s2) => (Err, s2) | (Panic, s2) => (Panic, s2) | (OutOfFuel, s2) => (OutOfFuel, s2)
      end = (r, s') /\ ends (rem s0 < Z.of_nat (S f)) r /\ box_cost k a' (e + 28) s0 r s').
    { intros accerr.
      destruct (IHk (addu64 sp 8) (addu64 sp 8) (addu64 sp (hsize h)) (rpos (sr s1)) [] (scharge (allocn 8) s1) I1 HB1)
        as (rk & s2 & -> & Fk & I2 & B2 & P2 & C2 & Q2). clear IHb IHk.
      cbn [scharge sr scost] in B2, P2, C2, Q2. rewrite T_alloc in C2, Q2.
      destruct rk as [kids| | |]; try contradiction.
      - specialize (Q2 kids eq_refl).
        destruct (accerr && rerr (sr s2)); ret; (split; [exact I|]); fin.
      - ret. split; [exact I|]. fin.
      - ret. split; [intros Hf; apply Fk; unfold rem, rlen in *; cbn [scharge sr]; rewrite B1; lia|]. fin. }
    destruct (ld_kind ld (hname h)) as [| |accerr]; [|exact (CONT false)|exact (CONT accerr)]. clear IHb IHk CONT.
    destruct (leaf_sr_cost _ _ _ _ _ _ LD h s1 I1 (conj Q1c (conj Q1b (conj HB1 PRE))))
      as (rl & s2 & -> & NPl & I2 & B2 & P2 & C2 & D2).
    pose proof (pay_a (rpos (sr s2) - rpos (sr s1)) ltac:(lia)) as Y3.
    destruct rl as [sz| | |]; try contradiction.
    + specialize (D2 sz eq_refl). ret. split; [exact I|]. fin.
    + ret. split; [exact I|]. fin.
  - (* children_sr *)
    intros sp pos endPos initPos acc s HI HB. cbn [children_sr]. fold (dec_box_sr ld). fold (children_sr ld).
    pose proof (pay_rest s HI) as R0.
    destruct (endPos <? pos)%N. { clear IHb IHk. ret. split; [exact I|]. fin. }
    destruct (pos =? endPos)%N. { clear IHb IHk. ret. split; [exact I|]. fin. }
    destruct (IHb pos (scharge (tick 1) s) HI HB) as (rb & s1 & -> & Fb & I1 & B1 & P1 & C1 & Q1). clear IHb.
    cbn [scharge sr scost] in B1, P1, C1, Q1. rewrite T_tick in C1, Q1.
    destruct rb as [child| | |]; try contradiction; [|clear IHk..].
    + (* the child took at least its 8 header bytes: the rest of the loop runs on less, with the fuel left *)
      destruct (Q1 child eq_refl) as [Q1a Q1b]. clear Q1.
      assert (HB1 : rlen (sr s1) < B) by (unfold rlen in *; rewrite B1; exact HB).
      destruct (int_of_u64 (subu64 (addu64 pos (tsize child)) sp) =? rpos (sr (scharge (allocn 1) s1)) - initPos).
      * destruct (IHk sp (addu64 pos (tsize child)) endPos initPos (child :: acc) (scharge (allocn 1) s1) I1 HB1)
          as (rk & s3 & -> & Fk & I3 & B3 & P3 & C3 & Q3). clear IHk.
        ret. split; [revert Fk; apply ends_mono; unfold rem, rlen in *; cbn [scharge sr]; rewrite B1; lia|]. fin.
        intros l Hl. specialize (Q3 l Hl). lia.
      * clear IHk. pose proof (pay_rest s1 I1). ret. split; [exact I|]. fin.
    + ret. split; [exact I|]. fin.
    + ret. split; [intros Hf; apply Fb; unfold rem in *; cbn [scharge sr]; lia|]. fin.
Qed.

End SRLoops.

(* ---------------------------------------------------------------- io.Reader path *)
Definition irem (s : ist) : Z := il s - ip s.

Definition rbox_cost (k E : Z) (s : ist) (r : res bout) (s' : ist) : Prop :=
  ibuf s' = ibuf s /\ ip s <= ip s' <= il s /\
  T (icost s') <= T (icost s) + k * (ip s' - ip s) + E /\
  (forall t, r = Ok (BBox t) -> ip s + 8 <= ip s' /\ T (icost s') <= T (icost s) + k * (ip s' - ip s) - 2) /\
  (r = Ok BEof -> T (icost s') <= T (icost s) + 17).
Definition rkids_cost (k E : Z) (s : ist) (r : res (list tree)) (s' : ist) : Prop :=
  ibuf s' = ibuf s /\ ip s <= ip s' <= il s /\
  T (icost s') <= T (icost s) + k * (ip s' - ip s) + E /\
  (forall l, r = Ok l -> T (icost s') <= T (icost s) + k * (ip s' - ip s) + 18).

Section RLoops.
Variables (B a a' c e k kr : Z) (ld : leafdec).
Hypothesis LD : leaf_cost B a a' c e ld.
Hypotheses (Ha : 0 <= a <= k) (Ha' : 0 <= a' <= k) (He : 0 <= e) (Hk : 2 <= k) (Hck : c + 3 <= 8 * k).
(* kr is the rate of the io.Reader loops: above k, because the body of a moov / moof is copied before the
   SliceReader loop runs on it; at least 6, because DecodeHeader allocates its 8 (16) byte buffer *)
Hypotheses (Hkr : k < kr) (Hkr6 : 6 <= kr) (Hckr : c + 19 <= 8 * kr).

Lemma rpay_a d : 0 <= d -> 0 <= a * d <= kr * d /\ d <= kr * d.
Proof.
  intros. assert (1 * d <= kr * d) by (apply Z.mul_le_mono_nonneg_r; lia).
  split; [split; [apply Z.mul_nonneg_nonneg|apply Z.mul_le_mono_nonneg_r]|]; lia.
Qed.
Lemma rpay_hdr d : 8 <= d -> 48 <= kr * d /\ c + 19 <= kr * d.
Proof. intros. assert (kr * 8 <= kr * d) by (apply Z.mul_le_mono_nonneg_l; lia). lia. Qed.
(* a body of d bytes copied (d), of which the SliceReader loop consumed p and left d - p *)
Lemma rpay_body d p : 0 <= p <= d -> d + k * p <= d + k * p + a' * (d - p) <= kr * d.
Proof.
  intros. assert (0 <= a' * (d - p) <= k * (d - p)) by (split; [apply Z.mul_nonneg_nonneg|apply Z.mul_le_mono_nonneg_r]; lia).
  assert ((k + 1) * d <= kr * d) by (apply Z.mul_le_mono_nonneg_r; lia). lia.
Qed.

(* positions and lengths as numbers of the state they belong to, whatever was charged to it *)
Ltac norm := unfold irem, ip, il in *; cbn [icharge ibuf ipos icost] in *; rewrite ?T_tick, ?T_alloc in *.
Ltac rfin := norm; unfold rbox_cost, rkids_cost, IInv, err_msg_ticks in *; norm;
  split; [congruence|]; split; [lia|]; split; [lia|]; try clause; try (split; clause).

Lemma r_loops_cost : forall fuel,
  (forall sp s, IInv s -> il s < B ->
     exists r s', dec_box_r ld fuel sp s = (r, s') /\ ends (irem s < Z.of_nat fuel) r /\ rbox_cost kr (e + 28) s r s') /\
  (forall pos endPos acc s, IInv s -> il s < B ->
     exists r s', children_r ld fuel pos endPos acc s = (r, s') /\ ends (irem s + 1 < Z.of_nat fuel) r /\
                  rkids_cost kr (e + 51) s r s').
Proof.
  induction fuel as [|f [IHb IHk]].
  { split; intros; ret; (split; [cbn; unfold irem, IInv in *; lia|]); rfin. }
  split.
  - (* dec_box_r *)
    intros sp s0 HI HB. cbn [dec_box_r]. fold (children_r ld).
    destruct (decode_header_spec (icharge (tick 1) s0) HI) as (rh & s1 & -> & NPh & B1 & P1 & C1 & Q1). norm.
    assert (L1 : lenN (ibuf s1) = lenN (ibuf s0)) by (rewrite B1; reflexivity).
    assert (HI1 : IInv s1) by (unfold IInv, ip, il in *; lia).
    assert (HB1 : il s1 < B) by (unfold il; lia).
    pose proof (rpay_a (ip s1 - ip s0) ltac:(unfold ip; lia)) as Y0.
    destruct rh as [[|h]| | |]; try contradiction.
    { clear IHb IHk. ret. split; [exact I|]. rfin. }
    2:{ clear IHb IHk. ret. split; [exact I|]. rfin. }
    destruct (Q1 h eq_refl) as [Q1a Q1b]. clear Q1.
    destruct (rpay_hdr (ip s1 - ip s0) ltac:(unfold ip; lia)) as [Y1 Y2].
    destruct (ld_kind ld (hname h)); [clear IHb IHk| |clear IHb IHk].
    + destruct (leaf_r_cost _ _ _ _ _ _ LD h s1 HI1 Q1b HB1) as (rl & s2 & -> & NPl & B2 & P2 & C2 & D2).
      pose proof (rpay_a (ip s2 - ip s1) ltac:(lia)) as Y3.
      destruct rl as [sz| | |]; try contradiction.
      * specialize (D2 sz eq_refl). ret. split; [exact I|]. rfin.
      * ret. split; [exact I|]. rfin.
    + destruct (IHk (addu64 sp 8) (addu64 sp (hsize h)) [] (icharge (allocn 8) s1) HI1 HB1)
        as (rk & s2 & -> & Fk & B2 & P2 & C2 & Q2). clear IHb IHk. norm.
      destruct rk as [kids| | |]; try contradiction.
      * specialize (Q2 _ eq_refl). ret. split; [exact I|]. rfin.
      * ret. split; [exact I|]. rfin.
      * ret. split; [intros Hf; apply Fk; lia|]. rfin.
    + (* moov / moof: the body is read into a buffer and the SliceReader child loop runs on a fresh reader over it *)
      destruct (read_limited_spec (payload_len h) s1 HI1) as (data & s2 & -> & B2 & P2 & L2 & C2).
      pose proof (rpay_a (ip s2 - ip s1) ltac:(lia)) as Y3.
      destruct (negb (zlen data =? payload_len h)).
      { ret. split; [exact I|]. rfin. }
      set (ss := mkS (rnew data) (allocn 8 (icost s2))).
      assert (HIss : Inv (sr ss)) by (unfold Inv, rlen, IInv, ip, il in *; cbn [ss sr rnew rbuf rpos]; lia).
      destruct (sr_loops_cost B a a' c e k ld LD ltac:(lia) ltac:(lia) He Hk Hck f) as [_ SK].
      destruct (SK (addu64 sp 8) (addu64 sp 8) (addu64 sp (hsize h)) 0 [] ss HIss ltac:(unfold rlen, ip, il in *; cbn [ss sr rnew rbuf]; lia))
        as (rk & ss' & -> & Fk & I3 & B3 & P3 & C3 & Q3). clear SK.
      unfold rem, rlen in Fk, C3. rewrite B3 in C3. cbn [ss sr scost rnew rbuf rpos] in Fk, B3, P3, C3, Q3. rewrite T_alloc in C3, Q3.
      assert (Rss : rpos (sr ss') <= zlen data) by (unfold Inv, rlen in I3; rewrite B3 in I3; lia).
      pose proof (rpay_body (zlen data) (rpos (sr ss')) ltac:(lia)) as Y4.
      rewrite Z.sub_0_r, L2 in *.
      destruct rk as [kids| | |]; try contradiction.
      * specialize (Q3 kids eq_refl). ret. split; [exact I|]. rfin.
      * ret. split; [exact I|]. rfin.
      * ret. split; [intros Hf; apply Fk; unfold IInv, ip, il in *; lia|]. rfin.
  - (* children_r *)
    intros pos endPos acc s HI HB. cbn [children_r]. fold (dec_box_r ld). fold (children_r ld).
    destruct (pos =? endPos)%N. { clear IHb IHk. ret. split; [exact I|]. rfin. }
    destruct (endPos <? pos)%N. { clear IHb IHk. ret. split; [exact I|]. rfin. }
    destruct (IHb pos (icharge (tick 1) s) HI HB) as (rb & s1 & -> & Fb & B1 & P1 & C1 & Q1 & QE). clear IHb. norm.
    assert (L1 : lenN (ibuf s1) = lenN (ibuf s)) by (rewrite B1; reflexivity).
    pose proof (rpay_a (ip s1 - ip s) ltac:(unfold ip; lia)) as Y0.
    destruct rb as [[|child]| | |]; try contradiction; [clear IHk| |clear IHk..].
    + specialize (QE eq_refl). ret. split; [exact I|]. rfin.
    + destruct (Q1 child eq_refl) as [Q1a Q1b]. clear Q1.
      destruct (IHk (addu64 pos (tsize child)) endPos (child :: acc) (icharge (allocn 1) s1)
                  ltac:(unfold IInv, ip, il in *; cbn [icharge ibuf ipos]; lia) ltac:(unfold il in *; cbn [icharge ibuf]; lia))
        as (rk & s3 & -> & Fk & B3 & P3 & C3 & Q3). clear IHk. norm.
      ret. split; [revert Fk; apply ends_mono; lia|]. rfin.
      intros l Hl. specialize (Q3 l Hl). lia.
    + ret. split; [exact I|]. rfin.
    + ret. split; [intros Hf; apply Fb; lia|]. rfin.
Qed.

End RLoops.

(* ---------------------------------------------------------------- whole byte strings *)
Theorem box_sr_cost B a a' c e k ld : leaf_cost B a a' c e ld ->
  0 <= a <= k -> 0 <= a' <= k -> 0 <= e -> 2 <= k -> c + 3 <= 8 * k -> B <= two63 ->
  forall bs, zlen bs < B ->
  exists r s', box_sr ld bs = (r, s') /\ (r = Err \/ exists t, r = Ok t) /\ T (scost s') <= k * zlen bs + (e + 28).
Proof.
  intros LD Ha Ha' He Hk Hck HB bs Hs. unfold box_sr.
  destruct (sr_loops_cost B a a' c e k ld LD Ha (proj1 Ha') He Hk Hck (S (length bs))) as [HL _].
  assert (HI : Inv (sr (snew bs))) by (unfold Inv, rlen; cbn; unfold zlen in *; lia).
  destruct (HL 0%N (snew bs) HI Hs) as (r & s' & E & NF & I1 & B1 & P1 & C1 & _).
  exists r, s'. split; [exact E|].
  split; [destruct r; [right; eauto|left; reflexivity|contradiction|exfalso; apply NF; unfold rem, rlen; cbn; unfold zlen; lia]|].
  unfold Inv, rem, rlen in *. rewrite B1 in *. cbn [snew sr rnew rbuf rpos scost] in *.
  assert (a' * (zlen bs - rpos (sr s')) <= k * (zlen bs - rpos (sr s'))) by (apply Z.mul_le_mono_nonneg_r; lia).
  change (T cost0) with 0 in C1. lia.
Qed.

Theorem box_r_cost B a a' c e k kr ld : leaf_cost B a a' c e ld ->
  0 <= a <= k -> 0 <= a' <= k -> 0 <= e -> 2 <= k -> c + 3 <= 8 * k -> k < kr -> 6 <= kr -> c + 19 <= 8 * kr -> B <= two63 ->
  forall bs, zlen bs < B ->
  exists r s', box_r ld bs = (r, s') /\ (r = Err \/ r = Ok BEof \/ exists t, r = Ok (BBox t)) /\
               T (icost s') <= kr * zlen bs + (e + 28).
Proof.
  intros LD Ha Ha' He Hk Hck Hkr Hkr6 Hckr HB bs Hs. unfold box_r.
  destruct (r_loops_cost B a a' c e k kr ld LD Ha Ha' He Hk Hck Hkr Hkr6 Hckr (S (length bs))) as [HL _].
  assert (HI : IInv (inew bs)) by (unfold IInv, ip, il; cbn; unfold zlen, lenN in *; lia).
  destruct (HL 0%N (inew bs) HI ltac:(unfold il; cbn; unfold zlen, lenN in *; lia)) as (r & s' & E & NF & B1 & P1 & C1 & _).
  exists r, s'. split; [exact E|].
  split; [destruct r as [[|t]| | |]; [right; left; reflexivity|right; right; eauto|left; reflexivity|contradiction|
                                      exfalso; apply NF; unfold irem, ip, il; cbn; unfold lenN; lia]|].
  unfold ip, il in *. cbn [inew ibuf ipos icost] in *. change (T cost0) with 0 in C1.
  assert (kr * (Z.of_N (ipos s') - Z.of_N 0) <= kr * zlen bs) by (apply Z.mul_le_mono_nonneg_l; unfold zlen, lenN in *; lia).
  lia.
Qed.

(* ---------------------------------------------------------------- leaves that cost what they consume, plus 1 *)
Section SR.
Variable ld : leafdec.
Hypothesis LD : leaf_ok ld.

Definition box_post (s : sst) (r : res tree) (s' : sst) : Prop :=
  Inv (sr s') /\ rbuf (sr s') = rbuf (sr s) /\ rpos (sr s) <= rpos (sr s') /\
  T (scost s') <= T (scost s) + 2 * (rpos (sr s') - rpos (sr s)) + 29 /\
  (forall t, r = Ok t -> rpos (sr s) + 8 <= rpos (sr s') /\
                         T (scost s') <= T (scost s) + 2 * (rpos (sr s') - rpos (sr s)) - 2).
Definition kids_post (s : sst) (r : res (list tree)) (s' : sst) : Prop :=
  Inv (sr s') /\ rbuf (sr s') = rbuf (sr s) /\ rpos (sr s) <= rpos (sr s') /\
  T (scost s') <= T (scost s) + 2 * (rpos (sr s') - rpos (sr s)) + 36 /\
  (forall l, r = Ok l -> T (scost s') <= T (scost s) + 2 * (rpos (sr s') - rpos (sr s)) + 3).

Lemma sr_loops : forall fuel,
  (forall sp s, Inv (sr s) ->
     exists r s', dec_box_sr ld fuel sp s = (r, s') /\ r <> Panic /\ (rem s < Z.of_nat fuel -> r <> OutOfFuel) /\
                  box_post s r s') /\
  (forall sp pos endPos initPos acc s, Inv (sr s) ->
     exists r s', children_sr ld fuel sp pos endPos initPos acc s = (r, s') /\ r <> Panic /\
                  (rem s + 1 < Z.of_nat fuel -> r <> OutOfFuel) /\ kids_post s r s').
Proof.
  intros fuel.
  destruct (sr_loops_cost two63 1 0 1 1 2 ld (leaf_ok_cost ld LD) ltac:(lia) ltac:(lia) ltac:(lia) ltac:(lia) ltac:(lia) fuel) as [HB HK].
  split.
  - intros sp s HI. destruct (HB sp s HI (proj2 HI)) as (r & s' & E & NF & I1 & B1 & P1 & C1 & Q1).
    destruct (ends_elim _ _ NF). exists r, s'. repeat (split; [assumption|]). split; [lia|exact Q1].
  - intros sp pos endPos initPos acc s HI.
    destruct (HK sp pos endPos initPos acc s HI (proj2 HI)) as (r & s' & E & NF & I1 & B1 & P1 & C1 & Q1).
    destruct (ends_elim _ _ NF). exists r, s'. repeat (split; [assumption|]). split; [lia|exact Q1].
Qed.

End SR.

Section RD.
Variable ld : leafdec.
Hypothesis LD : leaf_ok ld.

Definition K : Z := 6.
Definition rbox_post (s : ist) (r : res bout) (s' : ist) : Prop :=
  ibuf s' = ibuf s /\ ip s <= ip s' <= il s /\
  T (icost s') <= T (icost s) + K * (ip s' - ip s) + 29 /\
  (forall t, r = Ok (BBox t) -> ip s + 8 <= ip s' /\ T (icost s') <= T (icost s) + K * (ip s' - ip s) - 2) /\
  (r = Ok BEof -> T (icost s') <= T (icost s) + 17).
Definition rkids_post (s : ist) (r : res (list tree)) (s' : ist) : Prop :=
  ibuf s' = ibuf s /\ ip s <= ip s' <= il s /\
  T (icost s') <= T (icost s) + K * (ip s' - ip s) + 52 /\
  (forall l, r = Ok l -> T (icost s') <= T (icost s) + K * (ip s' - ip s) + 18).

Lemma r_loops : forall fuel,
  (forall sp s, IInv s ->
     exists r s', dec_box_r ld fuel sp s = (r, s') /\ r <> Panic /\ (irem s < Z.of_nat fuel -> r <> OutOfFuel) /\
                  rbox_post s r s') /\
  (forall pos endPos acc s, IInv s ->
     exists r s', children_r ld fuel pos endPos acc s = (r, s') /\ r <> Panic /\
                  (irem s + 1 < Z.of_nat fuel -> r <> OutOfFuel) /\ rkids_post s r s').
Proof.
  intros fuel.
  destruct (r_loops_cost two63 1 0 1 1 2 6 ld (leaf_ok_cost ld LD) ltac:(lia) ltac:(lia) ltac:(lia) ltac:(lia) ltac:(lia)
              ltac:(lia) ltac:(lia) ltac:(lia) fuel) as [HB HK].
  split.
  - intros sp s HI. destruct (HB sp s HI (proj2 HI)) as (r & s' & E & NF & P). destruct (ends_elim _ _ NF). exists r, s'. auto.
  - intros pos endPos acc s HI. destruct (HK pos endPos acc s HI (proj2 HI)) as (r & s' & E & NF & P).
    destruct (ends_elim _ _ NF). exists r, s'. auto.
Qed.

End RD.

(* ---------------------------------------------------------------- the concrete leaves satisfy the contract *)
Lemma read_bytes_spec n s : Inv s ->
  exists v s', read_bytes n s = Ok (v, s') /\ Inv s' /\ rbuf s' = rbuf s /\ rpos s <= rpos s'.
Proof.
  intros HI. unfold read_bytes.
  destruct (n <? 0) eqn:En. { ret. cbn. repeat split; try apply HI; lia. }
  destruct (rerr s). { ret. repeat split; try apply HI; lia. }
  destruct (rpos s >? rlen s - n) eqn:E.
  { ret. cbn. repeat split; try apply HI; lia. }
  pose proof HI as [HI1 HI2].
  destruct (gslice_ok (rbuf s) (rpos s) (rpos s + n)) as [l Hl]; try (unfold rlen in *; lia).
  rewrite Hl. cbn [rbind]. ret.
  unfold Inv, with_pos, rlen in *. cbn. repeat split; try lia; assumption.
Qed.

(* int(uint64(hdr.Size) - uint64(hdr.Hdrlen)) >= 0 is the difference of the two numbers *)
Lemma body_len_hs hs hl : (hl = 8 \/ hl = 16)%N -> 0 <= int_of_u64 (subu64 hs hl) ->
  Z.of_N (hs mod 18446744073709551616) = int_of_u64 (subu64 hs hl) + Z.of_N hl.
Proof.
  intros W H. unfold int_of_u64, subu64, w64, two63, two64 in *.
  destruct W as [-> | ->]; dlia.
Qed.

(* readBoxBody: an error, or a body of exactly hdr.Size - hdr.Hdrlen bytes; it costs the bytes it takes from the source *)
Lemma read_box_body_spec h s : (ipos s <= lenN (ibuf s))%N ->
  exists r s', read_box_body h s = (r, s') /\ np r /\ ibuf s' = ibuf s /\ (ipos s <= ipos s' <= lenN (ibuf s))%N /\
    T (icost s') = T (icost s) + (Z.of_N (ipos s') - Z.of_N (ipos s)) /\
    (forall body, r = Ok body -> zlen body = Z.of_N (ipos s') - Z.of_N (ipos s) /\
       (hdr_wf h -> Z.of_N (hsize h mod 18446744073709551616) = zlen body + Z.of_N (hlen h))).
Proof.
  intros HI. unfold read_box_body.
  destruct (hlen h =? hsize h)%N eqn:E0.
  { apply N.eqb_eq in E0. ret. cbn [np]. do 4 (split; [exact I || reflexivity || lia|]). intros body [= <-].
    split; [cbn; lia|]. intros W. rewrite <- E0, N.mod_small by (destruct W as [-> | ->]; lia). cbn. lia. }
  pose proof (body_len_hs (hsize h) (hlen h)) as HS.
  unfold read_limited. destruct (int_of_u64 (subu64 (hsize h) (hlen h)) <=? 0) eqn:En.
  { destruct (zlen (@nil N) =? int_of_u64 (subu64 (hsize h) (hlen h))) eqn:Ez; ret; cbn [np];
      do 4 (split; [exact I || reflexivity || lia|]); [|discriminate].
    intros body [= <-]. unfold zlen in *. cbn [length] in *. split; [|intros W; specialize (HS W)]; lia. }
  set (k := N.min (Z.to_N (int_of_u64 (subu64 (hsize h) (hlen h)))) (iavail s)).
  assert (Hk : (k <= lenN (ibuf s) - ipos s)%N) by (subst k; unfold iavail; lia).
  set (body := firstn (N.to_nat k) (skipn (N.to_nat (ipos s)) (ibuf s))).
  assert (Lb : zlen body = Z.of_N k) by (subst body; unfold zlen; rewrite firstn_length, skipn_length; unfold lenN in *; lia).
  destruct (zlen body =? int_of_u64 (subu64 (hsize h) (hlen h))) eqn:Ez; ret; cbn [np ibuf ipos icost]; rewrite T_alloc;
    do 4 (split; [exact I || reflexivity || lia|]); [|discriminate].
  intros b [= <-]. split; [|intros W; specialize (HS W)]; lia.
Qed.

Lemma std_leaves_ok : leaf_ok std_leaves.
Proof.
  constructor.
  - intros h s HI. cbn [ld_sr std_leaves]. unfold std_sr.
    destruct (read_bytes_spec (payload_len h) (sr s) HI) as [body [r1 [E [I1 [B1 P1]]]]]. rewrite E.
    destruct (eqb_name (hname h) name_mdat).
    { ret. cbn. repeat split; try apply I1; try assumption; lia. }
    destruct (rerr r1).
    { ret. cbn. repeat split; try apply I1; try assumption; lia. }
    destruct (eqb_name (hname h) name_free || eqb_name (hname h) name_skip);
      ret; cbn; repeat split; try apply I1; try assumption; lia.
  - intros h s HI. cbn [ld_r std_leaves]. unfold std_r.
    destruct (read_box_body_spec h s HI) as (r & s1 & -> & NP & B1 & P1 & C1 & _).
    destruct r as [body| | |]; try contradiction; [|ret; cbn [np]; repeat split; try assumption; lia].
    destruct (eqb_name (hname h) name_mdat); [|destruct (eqb_name (hname h) name_free || eqb_name (hname h) name_skip)];
      ret; cbn [np]; repeat split; try assumption; lia.
Qed.

(* ---------------------------------------------------------------- top-level statements *)
Definition small (bs : list N) : bool := zlen bs <? two63.     (* every Go slice *)

Theorem container_total_sr : forall ld, leaf_ok ld -> forall bs, small bs = true ->
  exists r s', box_sr ld bs = (r, s') /\ (r = Err \/ exists t, r = Ok t) /\
               (tot (scost s') <= 2 * lenN bs + 29)%N.
Proof.
  intros ld LD bs Hs. unfold small in Hs.
  destruct (box_sr_cost two63 1 0 1 1 2 ld (leaf_ok_cost ld LD) ltac:(lia) ltac:(lia) ltac:(lia) ltac:(lia) ltac:(lia) ltac:(lia)
              bs ltac:(lia)) as (r & s' & E & R & C).
  exists r, s'. split; [exact E|]. split; [exact R|]. unfold T, zlen, lenN in *. lia.
Qed.

Theorem container_total_r : forall ld, leaf_ok ld -> forall bs, small bs = true ->
  exists r s', box_r ld bs = (r, s') /\ (r = Err \/ r = Ok BEof \/ exists t, r = Ok (BBox t)) /\
               (tot (icost s') <= 6 * lenN bs + 29)%N.
Proof.
  intros ld LD bs Hs. unfold small in Hs.
  destruct (box_r_cost two63 1 0 1 1 2 6 ld (leaf_ok_cost ld LD) ltac:(lia) ltac:(lia) ltac:(lia) ltac:(lia) ltac:(lia)
              ltac:(lia) ltac:(lia) ltac:(lia) ltac:(lia) bs ltac:(lia)) as (r & s' & E & R & C).
  exists r, s'. split; [exact E|]. split; [exact R|]. unfold T, zlen, lenN in *. lia.
Qed.

(* both header decoders on every state of their byte source *)
Theorem header_total :
  (forall s, IInv s -> exists r s', decode_header s = (r, s') /\ np r /\ T (icost s') <= T (icost s) + 16) /\
  (forall s, Inv (sr s) -> exists r s', decode_header_sr s = (r, s') /\ np r /\ Inv (sr s') /\ scost s' = scost s).
Proof.
  split.
  - intros s HI. destruct (decode_header_spec s HI) as [r [s' [E [NP [_ [_ [C _]]]]]]]. eauto.
  - intros s HI. destruct (decode_header_sr_spec s HI) as [r [s' [E [NP [I1 [_ [_ [C _]]]]]]]]. eauto 6.
Qed.

End Container.
