(* C04TreeXProofs.v — sidx, subs and pssh as leaves of the box-tree decoders: what they cost in terms of the bytes
   they CONSUME (success) or of the bytes remaining (error), and the container theorems for a leaf contract with
   two constants: LC for a leaf that returns a box (paid by the 8 header bytes of that box: the factor 2600), LCE for
   a leaf that returns an error (paid once: the error ends the whole decode). *)
From V.lib Require Import Base.
From V.c04 Require Import C04Model C04ReaderProofs C04ContainerProofs C04AllocModel C04AllocProofs C04TreeModel C04TreeProofs C04TreeXModel.
Open Scope N_scope.

Section Unguarded.
Ltac Zify.zify_convert_to_euclidean_division_equations_flag ::= constr:(false).   (* no goal in this section is about a quotient *)

(* ------------------------------------------------------------------ the runs *)
(* r returns; the final position is inside the bytes seen; an accepted box costs at most 6 per byte consumed;
   a rejected one at most 6 per byte seen plus 17 * 65535 (sidx: reference_count is 16 bit and the loop appends a
   16-byte SidxRef per iteration whether or not the reads still fit) *)
Definition XE : N := 1114095.
Definition run_ok (r : res (aout * rd * N)) (len : N) : Prop :=
  exists o e sz, r = Ok (o, e, sz) /\ r_pos e <= len /\
    (o_ok o = true -> o_alloc o + o_iters o <= 6 * r_pos e) /\
    o_alloc o + o_iters o <= 6 * len + XE.

Lemma sidx_run_alloc hs hl body : alloc_sidx hs hl body = Ok (fst (fst (sidx_run body))).
Proof.
  unfold alloc_sidx, sidx_run. destruct (rd_n body 4 rd0) as [vf s1].
  match goal with |- context [rd_n body 2 ?s] => destruct (rd_n body 2 s) as [cnt s2] end.
  unfold afin. cbn [fst andb]. reflexivity.
Qed.

Lemma pssh_run_alloc hs hl body : alloc_pssh hs hl body = Ok (fst (fst (pssh_run body))).
Proof.
  unfold alloc_pssh, pssh_run. destruct (rd_n body 4 rd0) as [vf s1].
  destruct (0 <? version_of vf).
  - destruct (rd_n body 4 (rd_skip body 16 s1)) as [cnt s2]. destruct (rd_loop_x body cnt 16 s2) as [it s3].
    destruct (r_err s3); [reflexivity|]. destruct (rd_n body 4 s3) as [dl s4]. unfold afin. cbn [fst andb]. reflexivity.
  - destruct (rd_n body 4 (rd_skip body 16 s1)) as [dl s4]. unfold afin. cbn [fst andb]. reflexivity.
Qed.

(* the KID loop of pssh: without an error it has run cnt times over cnt * e bytes *)
Lemma rd_loop_x_noerr body cnt e s : e <> 0 -> r_err (snd (rd_loop_x body cnt e s)) = false ->
  fst (rd_loop_x body cnt e s) = cnt.
Proof.
  intros He. unfold rd_loop_x. destruct (cnt =? 0) eqn:E0; cbn [fst snd]; [bools; auto|].
  destruct (r_err s) eqn:Es; cbn [fst snd]; [congruence|].
  destruct (e =? 0) eqn:Ee; [bools; contradiction|].
  destruct (lenN body <? r_pos s + cnt * e); cbn [fst snd r_err]; [discriminate|auto].
Qed.

Lemma sidx_run_ok body : run_ok (Ok (sidx_run body)) (lenN body).
Proof.
  unfold sidx_run, run_ok, XE.
  pose proof (step_n body 4 rd0) as A. destruct (rd_n body 4 rd0) as [vf s1]. cbn [snd] in A.
  pose proof (step_trans A (step_trans (step_skip body 4 s1) (step_skip body 4 _))) as B.
  set (sa := rd_skip body 4 (rd_skip body 4 s1)) in *.
  assert (C : exists w, rd_step body rd0 (if version_of vf =? 0 then rd_skip body 4 (rd_skip body 4 sa) else rd_skip body 8 (rd_skip body 8 sa)) w).
  { destruct (version_of vf =? 0); eexists; exact (step_trans B (step_trans (step_skip body _ sa) (step_skip body _ _))). }
  destruct C as (w & C).
  set (sb := if version_of vf =? 0 then rd_skip body 4 (rd_skip body 4 sa) else rd_skip body 8 (rd_skip body 8 sa)) in *.
  pose proof (step_trans C (step_trans (step_skip body 2 sb) (step_n body 2 _))) as D.
  pose proof (rd_n_lt body 2 (rd_skip body 2 sb)) as Lt.
  destruct (rd_n body 2 (rd_skip body 2 sb)) as [cnt sd]. cbn [snd fst] in D, Lt. change (256 ^ 2) with 65536 in Lt.
  pose proof (step_trans D (step_loop body cnt 12 sd)) as (_ & In & Ok1 & _). specialize (In (N.le_0_l _)).
  do 3 eexists. split; [reflexivity|]. cbn [o_ok o_alloc o_iters]. split; [exact In|]. split; [|lia].
  intros Hok. apply negb_true_iff, Ok1 in Hok. cbn [r_pos rd0] in Hok. lia.
Qed.

(* the data of a pssh: a length, then that many bytes *)
Lemma pssh_data_step body s :
  let '(dl, s5) := rd_n body 4 s in exists w, rd_step body s (if 0 <? dl then rd_skip body dl s5 else s5) w.
Proof.
  pose proof (step_n body 4 s) as A. destruct (rd_n body 4 s) as [dl s5]. cbn [snd] in A.
  destruct (0 <? dl); eexists; [exact (step_trans A (step_skip body dl s5))|exact A].
Qed.

Lemma pssh_run_ok body : run_ok (Ok (pssh_run body)) (lenN body).
Proof.
  unfold pssh_run, run_ok, XE.
  pose proof (step_trans (step_n body 4 rd0) (step_skip body 16 _)) as A.
  destruct (rd_n body 4 rd0) as [vf s1]. cbn [snd] in A. set (s2 := rd_skip body 16 s1) in *.
  destruct (0 <? version_of vf).
  - pose proof (step_trans A (step_n body 4 s2)) as B. destruct (rd_n body 4 s2) as [cnt s3]. cbn [snd] in B.
    pose proof (step_trans B (step_loop body cnt 16 s3)) as C. rewrite <- rd_loop_x_state in C.
    pose proof (rd_loop_x_avail body cnt 16 s3) as Av. pose proof (rd_loop_x_noerr body cnt 16 s3 ltac:(discriminate)) as Ne.
    destruct (rd_loop_x body cnt 16 s3) as [it s4]. cbn [fst snd] in C, Av, Ne.
    destruct (r_err s4) eqn:E4.
    + destruct C as (_ & In & _). do 3 eexists. split; [reflexivity|]. cbn [o_ok o_alloc o_iters].
      split; [exact (In (N.le_0_l _))|]. split; [discriminate|lia].
    + rewrite (Ne eq_refl) in *. pose proof (pssh_data_step body s4) as D. destruct (rd_n body 4 s4) as [dl s5].
      destruct D as (w & D). pose proof (step_trans C D) as (_ & In & Ok1 & _).
      do 3 eexists. split; [reflexivity|]. cbn [o_ok o_alloc o_iters]. split; [exact (In (N.le_0_l _))|].
      split; [intros H; apply negb_true_iff, Ok1 in H; cbn [r_pos rd0] in H|]; lia.
  - pose proof (pssh_data_step body s2) as D. destruct (rd_n body 4 s2) as [dl s5].
    destruct D as (w & D). pose proof (step_trans A D) as (_ & In & _).
    do 3 eexists. split; [reflexivity|]. cbn [o_ok o_alloc o_iters]. split; [exact (In (N.le_0_l _))|]. split; [intros _|]; lia.
Qed.

Lemma subs_total_ok body : run_ok (subs_total body) (lenN body).
Proof.
  destruct (subs_total_spec body) as (o & e & sz & -> & Hp & _ & _ & Hs). unfold run_ok, XE.
  do 3 eexists. split; [reflexivity|]. split; [exact Hp|]. split; [intros E; rewrite E in Hs|destruct (o_ok o)]; lia.
Qed.

Lemma run_x_ok t body : unguarded t = true -> run_ok (run_x t body) (lenN body).
Proof.
  destruct t; try discriminate; intros _; cbn [run_x];
    [apply subs_total_ok | apply sidx_run_ok | apply pssh_run_ok].
Qed.

(* ------------------------------------------------------------------ the contract with two constants *)
Open Scope Z_scope.
Definition LA3 : Z := 7.         (* 6 per byte for the tables + 1 for the body buffer of the io.Reader path *)
Definition LCE : Z := 1200000.     (* a leaf that returns an error: 17 * 65535 (sidx) < LCE; paid once *)

Record leaf_ok3 (ld : leafdec) : Prop := mkLeafOk3 {
  leaf3_sr : forall h s, Inv (sr s) -> pre_sr h s ->
    exists r s', ld_sr ld h s = (r, s') /\ np r /\ Inv (sr s') /\ rbuf (sr s') = rbuf (sr s) /\
      rpos (sr s) <= rpos (sr s') /\
      T (scost s') <= T (scost s) + LA3 * rem s + LCE /\
      (forall sz, r = Ok sz -> T (scost s') <= T (scost s) + LA3 * (rpos (sr s') - rpos (sr s)) + LC);
  leaf3_r : forall h s, (ipos s <= lenN (ibuf s))%N -> hdr_wf h -> Z.of_N (lenN (ibuf s)) < BIG ->
    exists r s', ld_r ld h s = (r, s') /\ np r /\ ibuf s' = ibuf s /\
      (ipos s <= ipos s' <= lenN (ibuf s))%N /\
      T (icost s') <= T (icost s) + LA3 * (Z.of_N (ipos s') - Z.of_N (ipos s)) + LCE /\
      (forall sz, r = Ok sz -> T (icost s') <= T (icost s) + LA3 * (Z.of_N (ipos s') - Z.of_N (ipos s)) + LC) }.


(* every leaf decoder under the one-constant contract satisfies the two-constant one *)
Lemma leaf_ok2_ok3 ld : leaf_ok2 ld -> leaf_ok3 ld.
Proof.
  intros L. constructor.
  - intros h s HI HP. destruct (leaf2_sr ld L h s HI HP) as [r [s' [E [NP [I1 [B1 [P1 [C1 D1]]]]]]]].
    exists r, s'. split; [exact E|]. split; [exact NP|]. split; [exact I1|]. split; [exact B1|]. split; [exact P1|].
    split; [unfold rem in *; unfold Inv, LA, LA3, LC, LCE in *; lia |].
    intros sz Hs. specialize (D1 sz Hs). unfold LA, LA3 in *. lia.
  - intros h s HI W HB. destruct (leaf2_r ld L h s HI W HB) as [r [s' [E [NP [B1 [P1 C1]]]]]].
    exists r, s'. split; [exact E|]. split; [exact NP|]. split; [exact B1|]. split; [exact P1|].
    split; [unfold LA, LA3, LC, LCE in *; lia | intros; unfold LA, LA3 in *; lia].
Qed.

Lemma body_len s : Inv (sr s) -> Z.of_N (lenN (skipn (Z.to_nat (rpos (sr s))) (rbuf (sr s)))) = rem s.
Proof. intros HI. unfold Inv, rem, rlen, zlen, lenN in *. rewrite skipn_length. lia. Qed.

Lemma tblx_sr_ok t h s : unguarded t = true -> Inv (sr s) ->
  exists r s', tblx_sr t h s = (r, s') /\ np r /\ Inv (sr s') /\ rbuf (sr s') = rbuf (sr s) /\
    rpos (sr s) <= rpos (sr s') /\
    T (scost s') <= T (scost s) + LA3 * rem s + LCE /\
    (forall sz, r = Ok sz -> T (scost s') <= T (scost s) + LA3 * (rpos (sr s') - rpos (sr s)) + LC).
Proof.
  intros U HI. unfold tblx_sr. pose proof (body_len s HI) as Lb.
  set (body := skipn (Z.to_nat (rpos (sr s))) (rbuf (sr s))) in *.
  destruct (run_x_ok t body U) as (o & e & sz & -> & Hp & Hok & Hany).
  destruct (o_ok o) eqn:Eo.
  - specialize (Hok eq_refl). eexists _, _. split; [reflexivity|]. cbn [np sr scost rbuf rpos rerr]. rewrite T_charge.
    unfold rem in *. unfold Inv, rlen, LA3, LC, LCE, XE in *. cbn [rbuf rpos].
    repeat split; try lia; intros; lia.
  - eexists _, _. split; [reflexivity|]. cbn [np sr scost]. rewrite T_charge.
    unfold rem in *. unfold Inv, rlen, LA3, LC, LCE, XE in *.
    repeat split; try lia; intros; discriminate.
Qed.

Lemma tblx_r_ok t h s : unguarded t = true -> (ipos s <= lenN (ibuf s))%N -> hdr_wf h -> Z.of_N (lenN (ibuf s)) < BIG ->
  exists r s', tblx_r t h s = (r, s') /\ np r /\ ibuf s' = ibuf s /\
    (ipos s <= ipos s' <= lenN (ibuf s))%N /\
    T (icost s') <= T (icost s) + LA3 * (Z.of_N (ipos s') - Z.of_N (ipos s)) + LCE /\
    (forall sz, r = Ok sz -> T (icost s') <= T (icost s) + LA3 * (Z.of_N (ipos s') - Z.of_N (ipos s)) + LC).
Proof.
  intros U HI W HB. unfold tblx_r.
  destruct (read_box_body_spec h s HI) as (r & s1 & -> & NP & B1 & P1 & C1 & Hr).
  destruct r as [body| | |]; try contradiction;
    [|ret; unfold LA3, LC, LCE; repeat split; try assumption; try lia; intros; discriminate].
  destruct (Hr body eq_refl) as [Lb _].
  destruct (run_x_ok t body U) as (o & e & sz & -> & Hp & Hok & Hany). unfold zlen, lenN in *.
  destruct (o_ok o) eqn:Eo; ret; cbn [np icharge ibuf ipos icost]; rewrite T_charge; unfold LA3, LC, LCE, XE in *;
    repeat split; try assumption; try lia; intros; (discriminate || (specialize (Hok eq_refl); lia)).
Qed.

Lemma tblx_of_unguarded nm t : tblx_of nm = Some t -> unguarded t = true.
Proof.
  unfold tblx_of. destruct (tbox_of nm) as [t'|]; [|discriminate].
  destruct (unguarded t') eqn:G; [|discriminate]. intros H. inversion H; subst. exact G.
Qed.

(* every leaf decoder under leaf_ok, extended with the 14 guarded and the 3 unguarded table leaves *)
Theorem mixx_leaves_ok3 : forall other, leaf_ok other -> leaf_ok3 (mixx_leaves other).
Proof.
  intros other LD. pose proof (leaf_ok2_ok3 _ (mix_leaves_ok2 other LD)) as L3. constructor.
  - intros h s HI HP. cbn [ld_sr mixx_leaves].
    pose proof (leaf3_sr _ L3 h s HI HP) as H. cbn [ld_sr mix_leaves] in H.
    destruct (tbl_of (hname h)) as [t|] eqn:Et; [exact H|].
    destruct (tblx_of (hname h)) as [t|] eqn:Ex; [|exact H].
    apply tblx_sr_ok; [eapply tblx_of_unguarded; eauto | exact HI].
  - intros h s HI W HB. cbn [ld_r mixx_leaves].
    pose proof (leaf3_r _ L3 h s HI W HB) as H. cbn [ld_r mix_leaves] in H.
    destruct (tbl_of (hname h)) as [t|] eqn:Et; [exact H|].
    destruct (tblx_of (hname h)) as [t|] eqn:Ex; [|exact H].
    apply tblx_r_ok; auto. eapply tblx_of_unguarded; eauto.
Qed.

(* ---------------------------------------------------------------- the loops *)
Lemma leaf_ok3_cost ld : leaf_ok3 ld -> leaf_cost BIG LA3 LA3 LC LCE ld.
Proof.
  intros L. constructor.
  - intros h s HI HP. destruct (leaf3_sr ld L h s HI HP) as (r & s' & E & NP & I1 & B1 & P1 & C1 & D1).
    exists r, s'. repeat (split; [assumption|]). split; [|exact D1].
    unfold rem, rlen, LA3 in *. rewrite B1. lia.
  - intros h s HI W HB. unfold IInv, ip, il in *.
    destruct (leaf3_r ld L h s ltac:(lia) W HB) as (r & s' & E & NP & B1 & P1 & C1 & D1).
    exists r, s'. repeat (split; [assumption || lia|]). exact D1.
Qed.

(* ---------------------------------------------------------------- top-level statements *)

Lemma LA3_le : 0 <= LA3 <= 2600. Proof. unfold LA3. lia. Qed.
Lemma LCE_le : 0 <= LCE. Proof. unfold LCE. lia. Qed.

Theorem treex_total_sr : forall ld, leaf_ok3 ld -> forall bs, small32 bs = true ->
  exists r s', box_sr ld bs = (r, s') /\ (r = Err \/ exists t, r = Ok t) /\
               (tot (scost s') <= 2600 * lenN bs + 1200040)%N.
Proof.
  intros ld LD bs Hs. unfold small32 in Hs.
  destruct (box_sr_cost BIG LA3 LA3 LC LCE 2600 ld (leaf_ok3_cost ld LD) LA3_le LA3_le LCE_le ltac:(lia) ltac:(apply LC_le) BIG_le bs ltac:(lia))
    as (r & s' & E & R & C).
  exists r, s'. split; [exact E|]. split; [exact R|]. unfold T, zlen, lenN, LCE in *. lia.
Qed.

Theorem treex_total_r : forall ld, leaf_ok3 ld -> forall bs, small32 bs = true ->
  exists r s', box_r ld bs = (r, s') /\ (r = Err \/ r = Ok BEof \/ exists t, r = Ok (BBox t)) /\
               (tot (icost s') <= 2601 * lenN bs + 1200071)%N.
Proof.
  intros ld LD bs Hs. unfold small32 in Hs.
  destruct (box_r_cost BIG LA3 LA3 LC LCE 2600 2601 ld (leaf_ok3_cost ld LD) LA3_le LA3_le LCE_le ltac:(lia) ltac:(apply LC_le)
              ltac:(lia) ltac:(lia) ltac:(apply LC_le) BIG_le bs ltac:(lia)) as (r & s' & E & R & C).
  exists r, s'. split; [exact E|]. split; [exact R|]. unfold T, zlen, lenN, LCE in *. lia.
Qed.

(* the property's allocation clause over trees with sidx, subs and pssh as leaves: every byte string below 32 GiB, any
   leaf decoder under leaf_ok for the types that are not table boxes *)
Theorem treex_alloc : forall other, leaf_ok other -> forall bs, small32 bs = true ->
  (exists r s', box_sr (mixx_leaves other) bs = (r, s') /\ (r = Err \/ exists t, r = Ok t) /\
                (alloc (scost s') <= 2600 * lenN bs + 1200040)%N /\ (ticks (scost s') <= 2600 * lenN bs + 1200040)%N) /\
  (exists r s', box_r (mixx_leaves other) bs = (r, s') /\ (r = Err \/ r = Ok BEof \/ exists t, r = Ok (BBox t)) /\
                (alloc (icost s') <= 2601 * lenN bs + 1200071)%N /\ (ticks (icost s') <= 2601 * lenN bs + 1200071)%N).
Proof.
  intros other LD bs Hs. pose proof (mixx_leaves_ok3 other LD) as L3. split.
  - destruct (treex_total_sr _ L3 bs Hs) as [r [s' [E [R C]]]]. exists r, s'. unfold tot in C. repeat split; auto; lia.
  - destruct (treex_total_r _ L3 bs Hs) as [r [s' [E [R C]]]]. exists r, s'. unfold tot in C. repeat split; auto; lia.
Qed.

End Unguarded.
