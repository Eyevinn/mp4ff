(* C04InfoProofs.v — Info of the table boxes: no out-of-range access on the states the decoders produce, and a
   number of lines bounded linearly in the box size, at every level. *)
From V.lib Require Import Base.
From V.c04 Require Import C04AllocModel C04AllocProofs C04XrefModel C04XrefProofs C04InfoModel.
Open Scope N_scope.

Section Info.
Ltac Zify.zify_convert_to_euclidean_division_equations_flag ::= constr:(false).   (* no goal in this section is about a quotient *)

(* ------------------------------------------------------------------ loops *)
Lemma iloop_const1 body : forall fuel i acc,
  (forall j, i <= j < i + N.of_nat fuel -> body j = Ok 1) ->
  iloop fuel i body acc = Ok (acc + N.of_nat fuel).
Proof.
  induction fuel as [|f IH]; intros i acc H; cbn [iloop].
  - f_equal. lia.
  - rewrite (H i) by lia. cbn [rbind]. rewrite IH.
    + f_equal. lia.
    + intros j Hj. apply H. lia.
Qed.

Lemma for_n_const1 n body : (forall j, j < n -> body j = Ok 1) -> for_n n body = Ok n.
Proof.
  intros H. unfold for_n. rewrite iloop_const1.
  - f_equal. lia.
  - intros j Hj. apply H. lia.
Qed.

(* a loop that stops at the first out-of-range index *)
Lemma iloop_panics body : forall fuel i acc j,
  i <= j < i + N.of_nat fuel -> (forall k, i <= k < j -> exists m, body k = Ok m) -> body j = Panic ->
  iloop fuel i body acc = Panic.
Proof.
  induction fuel as [|f IH]; intros i acc j Hj Hok Hp; [lia|]. cbn [iloop].
  destruct (N.eq_dec i j) as [->|Hne].
  - rewrite Hp. reflexivity.
  - destruct (Hok i) as (m & ->); [lia|]. cbn [rbind].
    apply (IH (i + 1) (acc + m) j); [lia | intros k Hk; apply Hok; lia | exact Hp].
Qed.

(* body i = Ok (1 + l[i]) over a whole list *)
Lemma iloop_list body : forall (l : list N) i acc,
  (forall j, j < lenN l -> exists m, idxN l j = Ok m /\ body (i + j) = Ok (1 + m)) ->
  iloop (length l) i body acc = Ok (acc + lenN l + sumN l).
Proof.
  induction l as [|x t IH]; intros i acc H; cbn [length iloop].
  - rewrite lenN_nil. cbn [sumN]. f_equal. unfold sumN. cbn. lia.
  - destruct (H 0) as (m & Hm & Hb); [rewrite lenN_cons; lia|].
    cbn [idxN] in Hm. rewrite N.eqb_refl in Hm. injection Hm as <-.
    rewrite N.add_0_r in Hb. rewrite Hb. cbn [rbind].
    rewrite (IH (i + 1) (acc + (1 + x))).
    + f_equal. rewrite lenN_cons. unfold sumN. cbn [fold_right]. fold (sumN t). lia.
    + intros j Hj. destruct (H (j + 1)) as (m & Hm & Hb'); [rewrite lenN_cons; lia|].
      exists m. split.
      * cbn [idxN] in Hm. destruct (j + 1 =? 0) eqn:E; [lia|]. replace (j + 1 - 1) with j in Hm by lia. exact Hm.
      * replace (i + 1 + j) with (i + (j + 1)) by lia. exact Hb'.
Qed.

Lemma idxN_total_list (l : list N) j : j < lenN l -> exists m, idxN l j = Ok m.
Proof. intros H. destruct (idxN_in_range l j H) as (m & Hm & _). eauto. Qed.

Lemma at_ok len i : i < len -> at_ len i = Ok tt.
Proof. intros H. unfold at_. destruct (i <? len) eqn:E; [reflexivity | lia]. Qed.
Lemma at_panic len i : len <= i -> at_ len i = Panic.
Proof. intros H. unfold at_. destruct (i <? len) eqn:E; [lia | reflexivity]. Qed.

(* ------------------------------------------------------------------ the theorem *)
Definition info_bound (b : ibox) : N := isize b + 1030.

Lemma trun_lines_bound fl n : (negb (trun_per_sample fl =? 0) || (n <=? 1024)) = true ->
  n <= n * trun_per_sample fl + 1024.
Proof.
  intros H. destruct (trun_per_sample fl =? 0) eqn:E; cbn [negb orb] in H.
  - lia.
  - assert (1 <= trun_per_sample fl) by lia. nia.
Qed.

Lemma info_total b level : ibox_wf b = true ->
  exists n, info_lines b level = Ok n /\ n <= info_bound b.
Proof.
  unfold info_bound. intros Hwf. destruct b; cbn [ibox_wf] in Hwf; cbn [info_lines isize].
  - (* stsc *)
    destruct (lvl1 level).
    + rewrite for_n_const1.
      * cbn [rbind]. eexists; split; [reflexivity|]. unfold bN. destruct (0 <? n); lia.
      * intros j Hj. destruct (single =? 0) eqn:E; cbn [negb orb] in Hwf |- *; [|reflexivity].
        rewrite at_ok by lia. reflexivity.
    + cbn [rbind]. eexists; split; [reflexivity|]. unfold bN. destruct (0 <? n); lia.
  - (* trun *)
    pose proof (trun_lines_bound fl n Hwf) as Hb. unfold trun_expected.
    destruct (lvl1 level).
    + rewrite for_n_const1 by (intros; reflexivity). cbn [rbind]. eexists; split; [reflexivity|].
      unfold bN. destruct (has fl 1), (has fl 4); lia.
    + cbn [rbind]. eexists; split; [reflexivity|]. lia.
  - (* senc, not parsed *)
    eexists; split; [reflexivity|]. lia.
  - (* senc, parsed *)
    apply andb_true_iff in Hwf. destruct Hwf as (Hwf & Hraw). apply andb_true_iff in Hwf. destruct Hwf as (Hiv & Hsub).
    destruct (lvl1 level && ((0 <? iv) || senc_sub fl subs)) eqn:Ec.
    2:{ cbn [rbind]. eexists; split; [reflexivity|]. lia. }
    apply andb_true_iff in Ec. destruct Ec as (_ & Ec).
    assert (Hat : forall j, j < count -> (if 0 <? iv then at_ ivs j else Ok tt) = Ok tt).
    { intros j Hj. destruct (0 <? iv) eqn:E; [|reflexivity].
      destruct (iv =? 0) eqn:E0; [lia|]. cbn [orb] in Hiv. apply at_ok. lia. }
    destruct (senc_sub fl subs) eqn:Es.
    + cbn [negb orb] in Hsub. apply N.eqb_eq in Hsub.
      unfold for_n. replace (N.to_nat count) with (length subs) by (unfold lenN in Hsub; lia).
      rewrite iloop_list.
      * cbn [rbind]. eexists; split; [reflexivity|]. nia.
      * intros j Hj. destruct (idxN_total_list subs j Hj) as (m & Hm). exists m. split; [exact Hm|].
        cbn [N.add]. rewrite Hat by lia. cbn [rbind]. rewrite Hm. reflexivity.
    + rewrite orb_false_r in Ec.
      rewrite for_n_const1.
      * cbn [rbind]. eexists; split; [reflexivity|]. assert (1 <= iv) by lia. nia.
      * intros j Hj. rewrite Hat by lia. reflexivity.
  - (* tfra *) eexists; split; [reflexivity|]. pose proof (tfra_entry_ge ver sizes). destruct (lvl1 level); [nia|lia].
  - (* sidx *) eexists; split; [reflexivity|]. destruct (lvl1 level), (ver =? 0); lia.
  - (* saiz *)
    destruct (lvl1 level && (dflt =? 0)) eqn:Ec.
    + apply andb_true_iff in Ec. destruct Ec as (_ & Ed). rewrite Ed in Hwf |- *. cbn [negb orb] in Hwf.
      rewrite for_n_const1.
      * cbn [rbind]. eexists; split; [reflexivity|]. unfold bN. destruct (has fl 1); lia.
      * intros j Hj. rewrite at_ok by lia. reflexivity.
    + cbn [rbind]. eexists; split; [reflexivity|]. unfold bN. destruct (has fl 1), (dflt =? 0); lia.
  - (* ctts *)
    destruct (lvl1 level).
    + rewrite for_n_const1.
      * cbn [rbind]. eexists; split; [reflexivity|]. lia.
      * intros j Hj. rewrite !at_ok by lia. reflexivity.
    + cbn [rbind]. eexists; split; [reflexivity|]. lia.
  - (* stts *)
    destruct (lvl1 level).
    + rewrite for_n_const1.
      * cbn [rbind]. eexists; split; [reflexivity|]. unfold bN. destruct (0 <? counts); lia.
      * intros j Hj. rewrite at_ok by lia. reflexivity.
    + cbn [rbind]. eexists; split; [reflexivity|]. unfold bN. destruct (0 <? counts); lia.
  - (* sbgp *)
    destruct (lvl1 level).
    + rewrite for_n_const1.
      * cbn [rbind]. eexists; split; [reflexivity|]. unfold bN. destruct (ver =? 1); lia.
      * intros j Hj. rewrite at_ok by lia. reflexivity.
    + cbn [rbind]. eexists; split; [reflexivity|]. unfold bN. destruct (ver =? 1); lia.
  - (* saio *) eexists; split; [reflexivity|]. unfold bN. destruct (has fl 1), (0 <? n), (lvl1 level), (ver =? 0); lia.
  - (* stsz *) destruct (number =? 0); (eexists; split; [reflexivity|]); [lia|]. destruct (sizes =? 0), (lvl1 level); lia.
  - (* stss *) eexists; split; [reflexivity|]. unfold bN. destruct (0 <? n), (lvl1 level); lia.
  - (* stco *) eexists; split; [reflexivity|]. unfold bN. destruct (0 <? n), (lvl1 level); lia.
  - (* co64 *) eexists; split; [reflexivity|]. unfold bN. destruct (0 <? n), (lvl1 level); lia.
  - (* elst *) eexists; split; [reflexivity|]. destruct (ver =? 1); lia.
  - (* sdtp *) eexists; split; [reflexivity|]. destruct (lvl1 level); lia.
  - (* subs *) eexists; split; [reflexivity|]. destruct (lvl1 level), (ver =? 1); lia.
Qed.

(* with getInfoLevel in front: any token list *)
Lemma info_total_levels b bt toks : ibox_wf b = true ->
  exists n, info_lines b (get_info_level bt toks) = Ok n /\ n <= info_bound b.
Proof. apply info_total. Qed.

(* ------------------------------------------------------------------ the relations are needed *)
Lemma info_wf_needed :
  info_lines (IStts 2 1) 1 = Panic /\ info_lines (ICtts 1 1) 1 = Panic /\ info_lines (ISbgp 0 2 1) 1 = Panic /\
  info_lines (IStsc 2 0 1) 1 = Panic /\ info_lines (ISaiz 0 0 3 2) 1 = Panic /\
  info_lines (ISenc 0 2 8 1 [] 16) 1 = Panic /\ info_lines (ISenc 2 2 0 0 [1] 20) 1 = Panic /\
  (* at level 0 the same states print *)
  info_lines (IStts 2 1) 0 = Ok 2 /\ info_lines (ISenc 2 2 0 0 [1] 20) 0 = Ok 3.
Proof. vm_compute. repeat split; reflexivity. Qed.

(* exactly: the stts loop panics at level >= 1 iff SampleTimeDelta is shorter than SampleCount *)
Lemma info_stts_panics_iff counts deltas level : (1 <= level)%Z ->
  (info_lines (IStts counts deltas) level = Panic <-> deltas < counts).
Proof.
  intros Hl. cbn [info_lines]. unfold lvl1. destruct (1 <=? level)%Z eqn:E; [|lia].
  split.
  - intros H. destruct (N.lt_ge_cases deltas counts) as [?|Hge]; [assumption|].
    rewrite for_n_const1 in H; [discriminate|]. intros j Hj. rewrite at_ok by lia. reflexivity.
  - intros Hlt. unfold for_n. rewrite (iloop_panics _ (N.to_nat counts) 0 0 deltas).
    + reflexivity.
    + lia.
    + intros k Hk. rewrite at_ok by lia. eexists; reflexivity.
    + rewrite at_panic by lia. reflexivity.
Qed.

(* ------------------------------------------------------------------ decoded states are well formed *)
Lemma stsc_ids_inv : forall sdis i single alloc,
  forallb (fun x => negb (x =? 0)) sdis = true ->
  (i = 0 \/ (negb (single =? 0) || alloc) = true) ->
  let '(s', a') := stsc_ids sdis i single alloc in
  (sdis = [] /\ i = 0) \/ (negb (s' =? 0) || a') = true.
Proof.
  induction sdis as [|sdi rest IH]; intros i single alloc Hnz Hinv; cbn [stsc_ids].
  - destruct Hinv as [->|H]; [left; auto | right; exact H].
  - cbn [forallb] in Hnz. apply andb_true_iff in Hnz. destruct Hnz as (Hs & Hr).
    destruct (i =? 0) eqn:Ei.
    + specialize (IH (i + 1) sdi alloc Hr). destruct (stsc_ids rest (i + 1) sdi alloc) as (s', a').
      destruct IH as [(_ & H0)|H]; [right; rewrite Hs; reflexivity | lia | right; exact H].
    + destruct Hinv as [->|Hinv]; [discriminate|].
      destruct (sdi =? single) eqn:Eq; cbn [negb].
      * specialize (IH (i + 1) single alloc Hr). destruct (stsc_ids rest (i + 1) single alloc) as (s', a').
        destruct IH as [(_ & H0)|H]; [right; exact Hinv | lia | right; exact H].
      * destruct (single =? 0) eqn:E0; cbn [negb].
        -- specialize (IH (i + 1) single alloc Hr). destruct (stsc_ids rest (i + 1) single alloc) as (s', a').
           destruct IH as [(_ & H0)|H]; [right; rewrite E0; exact Hinv | lia | right; exact H].
        -- specialize (IH (i + 1) 0 true Hr). destruct (stsc_ids rest (i + 1) 0 true) as (s', a').
           destruct IH as [(_ & H0)|H]; [right; reflexivity | lia | right; exact H].
Qed.

Lemma existsb_zero_false (l : list N) : existsb (fun x => x =? 0) l = false -> forallb (fun x => negb (x =? 0)) l = true.
Proof.
  induction l as [|x t IH]; cbn [existsb forallb]; [reflexivity|].
  intros H. apply orb_false_iff in H. destruct H as (-> & Ht). cbn [negb andb]. apply IH. exact Ht.
Qed.

Lemma state_of_box_wf sr bs st : state_of_box sr bs = Some (Some st) -> ibox_wf st = true.
Proof.
  unfold state_of_box.
  destruct (hdr_of bs) as [[hs hl]|]; [|destruct (if sr then alloc_box_sr bs else alloc_box_r bs); discriminate].
  destruct (if sr then alloc_box_sr bs else alloc_box_r bs) as [[o| | |]|]; try discriminate.
  destruct (o_ok o); cbn [negb]; [|discriminate].
  destruct (rd_n (skipn (N.to_nat hl) bs) 4 rd0) as (vf, s4).
  set (body := skipn (N.to_nat hl) bs). set (n := o_count o).
  repeat match goal with |- context [if nm ?x bs then _ else _] => destruct (nm x bs) end; try discriminate.
  - (* stsc *)
    destruct (existsb (fun x => x =? 0) (stsc_read_ids body (N.to_nat n) 8)) eqn:Ez; [discriminate|].
    pose proof (stsc_ids_inv (stsc_read_ids body (N.to_nat n) 8) 0 0 false (existsb_zero_false _ Ez) (or_introl eq_refl)) as H.
    destruct (stsc_ids (stsc_read_ids body (N.to_nat n) 8) 0 0 false) as (single, alloc).
    intros [= <-]. cbn [ibox_wf].
    destruct H as [(-> & _)|H].
    + destruct (single =? 0), alloc; reflexivity.
    + destruct (single =? 0); cbn [negb orb] in H |- *; [|reflexivity]. rewrite H. apply N.leb_refl.
  - (* trun *)
    destruct ((1024 <? n) && (trun_per_sample (flags_of vf) =? 0)) eqn:E; [discriminate|].
    intros [= <-]. cbn [ibox_wf]. destruct (trun_per_sample (flags_of vf) =? 0); cbn [negb orb]; [|reflexivity].
    rewrite andb_true_r in E. apply N.leb_le. apply N.ltb_ge in E. exact E.
  - (* senc *)
    destruct (has (flags_of vf) 2 && (Z.to_N (apayload_len hs hl - 8) <? 2 * n)) eqn:E; [discriminate|].
    destruct ((n =? 0) || (Z.to_N (apayload_len hs hl - 8) =? 0)) eqn:E2; intros [= <-]; [|reflexivity].
    cbn [ibox_wf]. unfold senc_sub. cbn [existsb]. rewrite orb_false_r. rewrite N.eqb_refl. cbn [orb andb].
    destruct (has (flags_of vf) 2) eqn:Ef; cbn [negb orb andb] in E |- *.
    + apply N.ltb_ge in E. rewrite lenN_nil. unfold sumN. cbn [fold_right].
      apply orb_true_iff in E2. destruct E2 as [E2|E2]; apply N.eqb_eq in E2.
      * rewrite E2. cbn. apply N.leb_le. lia.
      * assert (n = 0) as -> by lia. cbn. apply N.leb_le. lia.
    + apply N.leb_le. lia.
  - (* tfra *) destruct (rd_n body 4 (rd_skip body 4 s4)). intros [= <-]. reflexivity.
  - intros [= <-]. reflexivity.
  - (* saiz *)
    destruct (rd_n body 1 (if has (flags_of vf) 1 then rd_skip body 8 s4 else s4)) as (dflt, s).
    destruct (rd_n body 4 s) as (cnt, s'). intros [= <-]. cbn [ibox_wf].
    destruct (dflt =? 0); cbn [negb orb]; [apply N.leb_refl | reflexivity].
  - intros [= <-]. cbn [ibox_wf]. apply N.leb_refl.
  - intros [= <-]. cbn [ibox_wf]. apply N.leb_refl.
  - intros [= <-]. cbn [ibox_wf]. apply N.leb_refl.
  - intros [= <-]. reflexivity.
  - destruct (rd_n body 4 s4) as (u, s). destruct (rd_n body 4 s). intros [= <-]. reflexivity.
  - intros [= <-]. reflexivity.
  - intros [= <-]. reflexivity.
  - intros [= <-]. reflexivity.
  - intros [= <-]. reflexivity.
  - intros [= <-]. reflexivity.
  - destruct (rd_n body 4 s4) as (cnt, s). intros [= <-]. reflexivity.
Qed.

Lemma senc_parsed_state_wf fl cnt raw iv st : senc_parsed_state fl cnt raw iv = Some st -> ibox_wf st = true.
Proof.
  unfold senc_parsed_state. destruct (senc_parse fl cnt raw iv) as [[[[[[|] a] b] al] it]| | |]; try discriminate.
  match goal with |- context [if ibox_wf ?s then _ else _] => destruct (ibox_wf s) eqn:E end; [|discriminate].
  intros [= <-]. exact E.
Qed.

(* every box the decoders return prints at every level *)
Lemma info_decoded_total sr bs st bt toks : state_of_box sr bs = Some (Some st) ->
  exists n, info_lines st (get_info_level bt toks) = Ok n /\ n <= info_bound st.
Proof. intros H. apply info_total. exact (state_of_box_wf sr bs st H). Qed.

End Info.
