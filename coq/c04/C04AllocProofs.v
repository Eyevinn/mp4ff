(* C04AllocProofs.v — for ALL headers and bodies, every table-box prologue of C04AllocModel.v returns (never
   panics) and its allocation / loop count is bounded by a fixed multiple of the box size + bytes available
   plus a constant. *)
From V.lib Require Import Base.
From V.c04 Require Import C04AllocModel C04TreeModel C04TreeXModel.

Ltac bools :=
  repeat match goal with
  | H : (_ =? _) = true |- _ => apply N.eqb_eq in H
  | H : (_ =? _) = false |- _ => apply N.eqb_neq in H
  | H : (_ <? _) = true |- _ => apply N.ltb_lt in H
  | H : (_ <? _) = false |- _ => apply N.ltb_ge in H
  | H : (_ <=? _) = true |- _ => apply N.leb_le in H
  | H : (_ <=? _) = false |- _ => apply N.leb_gt in H
  | H : (_ <? _)%Z = true |- _ => apply Z.ltb_lt in H
  | H : (_ <? _)%Z = false |- _ => apply Z.ltb_ge in H
  | H : negb _ = true |- _ => apply negb_true_iff in H
  | H : negb _ = false |- _ => apply negb_false_iff in H
  | H : _ && _ = true |- _ => apply andb_true_iff in H; destruct H
  end.

Section Prologues.
(* lia takes quotients and remainders as unknowns in this section; the few goals that are about one say so: dlia *)
Ltac Zify.zify_convert_to_euclidean_division_equations_flag ::= constr:(false).
Ltac dlia := zify; Z.to_euclidean_division_equations; lia.

(* r returns, allocates at most a*n + b bytes and e * iterations <= n + c  (n = box size + bytes the reader sees) *)
Definition bounded (r : res aout) (a b e c n : N) : Prop :=
  exists o, r = Ok o /\ o_alloc o <= a * n + b /\ e * o_iters o <= n + c.

Lemma bounded_weaken r a b e c n a' b' c' n' :
  bounded r a b e c n -> a <= a' -> b <= b' -> c <= c' -> n <= n' -> bounded r a' b' e c' n'.
Proof.
  intros (o & -> & Ha & Hi) ? ? ? ?. exists o. split; [reflexivity|]. split; nia.
Qed.

Lemma bounded_rej a b e c n : bounded rej a b e c n.
Proof. exists (mkO false 0 0 0). cbn. repeat split; lia. Qed.

(* ---- values read are fixed width ---- *)
Lemma abe_lt l acc : abe l acc < (acc + 1) * 256 ^ N.of_nat (length l).
Proof.
  revert acc. induction l as [|b t IH]; intros acc.
  - cbn [abe length]. change (N.of_nat 0) with 0. rewrite N.pow_0_r. lia.
  - cbn [abe length]. specialize (IH (acc * 256 + b mod 256)).
    rewrite Nat2N.inj_succ, N.pow_succ_r'.
    assert (b mod 256 < 256) by (apply N.mod_lt; discriminate).
    assert (0 < 256 ^ N.of_nat (length t)) by (apply N.neq_0_lt_0, N.pow_nonzero; discriminate).
    nia.
Qed.

Lemma rd_n_lt body w s : fst (rd_n body w s) < 256 ^ w.
Proof.
  assert (P : 0 < 256 ^ w) by (apply N.neq_0_lt_0, N.pow_nonzero; discriminate).
  unfold rd_n. destruct (r_err s); [exact P|]. destruct (lenN body <? r_pos s + w); [exact P|].
  cbn [fst]. eapply N.lt_le_trans; [apply abe_lt|]. rewrite N.add_0_l, N.mul_1_l.
  apply N.pow_le_mono_r; [discriminate|]. rewrite firstn_length. lia.
Qed.

(* uint64 expectedSize arithmetic cannot wrap: counts are 32 bit, per-entry sizes at most 64 *)
Lemma exp_no_wrap body s k fixed : k <= 64 -> fixed <= 4096 ->
  fixed + fst (rd_n body 4 s) * k < 18446744073709551616.
Proof. intros. pose proof (rd_n_lt body 4 s) as H1. change (256 ^ 4) with 4294967296 in H1. nia. Qed.

Lemma rd_loop_x_le body cnt e s : fst (rd_loop_x body cnt e s) <= cnt.
Proof.
  unfold rd_loop_x. destruct (cnt =? 0) eqn:E0; [cbn; lia|]. apply N.eqb_neq in E0.
  destruct (r_err s); [cbn; lia|]. destruct (e =? 0) eqn:Ee; [cbn; lia|]. apply N.eqb_neq in Ee.
  destruct (lenN body <? r_pos s + cnt * e) eqn:El; cbn [fst]; [|lia].
  apply N.ltb_lt in El.
  assert ((lenN body - r_pos s) / e < cnt); [|lia].
  apply N.div_lt_upper_bound; [exact Ee|]. nia.
Qed.

(* iterations of an exit-on-error loop are also bounded by the bytes available *)
Lemma rd_loop_x_avail body cnt e s : e * fst (rd_loop_x body cnt e s) <= lenN body + e.
Proof.
  unfold rd_loop_x. destruct (cnt =? 0) eqn:E0; [cbn; lia|]. apply N.eqb_neq in E0.
  destruct (r_err s); [cbn; lia|]. destruct (e =? 0) eqn:Ee; [apply N.eqb_eq in Ee; subst; cbn; lia|].
  apply N.eqb_neq in Ee.
  destruct (lenN body <? r_pos s + cnt * e) eqn:El; cbn [fst].
  - pose proof (N.mul_div_le (lenN body - r_pos s) e Ee). nia.
  - apply N.ltb_ge in El. nia.
Qed.

Ltac ok_with := unfold bounded, afin; eexists; split; [reflexivity|]; cbn [o_alloc o_iters].

Lemma bN_le b n : bN b n <= n. Proof. destruct b; cbn; lia. Qed.

(* ---- the accumulated-error reader ---- *)
Lemma rd_skip_eq body w s : rd_skip body w s = snd (rd_n body w s).
Proof. unfold rd_skip, rd_n. destruct (r_err s); [reflexivity|]. destruct (lenN body <? r_pos s + w); reflexivity. Qed.

Definition rd_in (body : list N) (s : rd) : Prop := r_pos s <= lenN body.

(* s' is s after reads of w bytes in all: it has not moved back nor left the bytes seen; it carries no error
   exactly when s carried none and the w bytes were there, and then it stands w bytes further *)
Definition rd_step (body : list N) (s s' : rd) (w : N) : Prop :=
  r_pos s <= r_pos s' /\ (rd_in body s -> rd_in body s') /\
  (r_err s' = false -> r_err s = false /\ r_pos s' = r_pos s + w) /\
  (r_err s = false -> r_pos s + w <= lenN body -> r_err s' = false).

Lemma step_trans {body s s1 s2 w1 w2} : rd_step body s s1 w1 -> rd_step body s1 s2 w2 -> rd_step body s s2 (w1 + w2).
Proof.
  intros (M1 & I1 & O1 & F1) (M2 & I2 & O2 & F2). split; [lia|]. split; [auto|]. split.
  - intros E. destruct (O2 E) as [E1 P2]. destruct (O1 E1) as [E0 P1]. split; [exact E0|lia].
  - intros E H. assert (E1 : r_err s1 = false) by (apply F1; [exact E|lia]).
    apply F2; [exact E1|]. destruct (O1 E1) as [_ P1]. lia.
Qed.

Lemma step_n body w s : rd_step body s (snd (rd_n body w s)) w.
Proof.
  unfold rd_step, rd_in, rd_n. destruct (r_err s) eqn:E; cbn [snd]; [repeat split; auto; try lia; congruence|].
  destruct (lenN body <? r_pos s + w) eqn:L; cbn [snd r_err r_pos]; bools; repeat split; auto; try lia; discriminate.
Qed.

Lemma step_skip body w s : rd_step body s (rd_skip body w s) w.
Proof. rewrite rd_skip_eq. apply step_n. Qed.

Lemma step_loop body cnt e s : rd_step body s (rd_loop body cnt e s) (cnt * e).
Proof.
  unfold rd_step, rd_in, rd_loop. destruct (r_err s) eqn:E; [repeat split; auto; try lia; congruence|].
  destruct ((e =? 0) || (cnt =? 0)) eqn:Z.
  { assert (cnt * e = 0) as -> by (apply orb_true_iff in Z; destruct Z; bools; subst; lia).
    rewrite E. repeat split; auto; lia. }
  apply orb_false_iff in Z. destruct Z as [Z1 Z2]. bools. pose proof (N.mul_div_le (lenN body - r_pos s) e Z1).
  destruct (lenN body <? r_pos s + cnt * e) eqn:L; cbn [r_err r_pos]; bools;
    repeat split; auto using N.le_add_r; try lia; discriminate.
Qed.

(* the loop that leaves at the first error ends in the same state *)
Lemma rd_loop_x_state body cnt e s : snd (rd_loop_x body cnt e s) = rd_loop body cnt e s.
Proof.
  unfold rd_loop_x, rd_loop. destruct (cnt =? 0) eqn:C; cbn [snd].
  { destruct (r_err s); [reflexivity|]. rewrite orb_true_r. reflexivity. }
  destruct (r_err s); [reflexivity|]. destruct (e =? 0); cbn [snd orb]; [reflexivity|].
  destruct (lenN body <? r_pos s + cnt * e); reflexivity.
Qed.

(* positions alone *)
Lemma rd_n_pos body w s : rd_in body s -> rd_in body (snd (rd_n body w s)).
Proof. apply step_n. Qed.
Lemma rd_skip_pos body w s : rd_in body s -> rd_in body (rd_skip body w s).
Proof. apply step_skip. Qed.

(* ---- trun ---- *)
Lemma trun_per_zero fl :
  has fl 256 = false -> has fl 512 = false -> has fl 1024 = false -> has fl 2048 = false -> trun_per_sample fl = 0.
Proof. unfold trun_per_sample. intros -> -> -> ->. reflexivity. Qed.

(* no per-sample field at all, or at least four bytes per sample *)
Lemma trun_per_cases fl :
  (has fl 256 = false /\ has fl 512 = false /\ has fl 1024 = false /\ has fl 2048 = false) \/
  (negb (has fl 256) && (negb (has fl 512) && (negb (has fl 1024) && negb (has fl 2048))) = false /\ 4 <= trun_per_sample fl).
Proof.
  unfold trun_per_sample. destruct (has fl 256), (has fl 512), (has fl 1024), (has fl 2048); cbn;
    (left; repeat split; reflexivity) || (right; split; [reflexivity|lia]).
Qed.

Lemma alloc_trun_bounded p hs hl body : bounded (alloc_trun p hs hl body) 4 16384 4 4096 hs.
Proof.
  unfold alloc_trun.
  destruct (rd_n body 4 rd0) as [vf s1]. destruct (rd_n body 4 s1) as [cnt s2].
  set (fl := flags_of vf).
  destruct (negb (hs =? trun_expected fl cnt)) eqn:E; [apply bounded_rej|]. bools.
  unfold trun_expected in E. rewrite <- !andb_assoc.
  destruct (trun_per_cases fl) as [(H1 & H2 & H3 & H4)|(-> & P)].
  - (* the one case where the count is not tied to the box size: at most 1024 samples *)
    rewrite H1, H2, H3, H4. cbn [negb]. rewrite !andb_true_r. destruct (1024 <? cnt) eqn:Ec; [apply bounded_rej|]. bools.
    ok_with; lia.
  - rewrite andb_false_r. ok_with; nia.
Qed.

Lemma alloc_stts_bounded hs hl body : bounded (alloc_stts hs hl body) 1 0 8 0 hs.
Proof.
  unfold alloc_stts. destruct (rd_n body 4 rd0) as [vf s1]. destruct (rd_n body 4 s1) as [cnt s2].
  destruct (negb (hs =? 16 + cnt * 8)) eqn:E; [apply bounded_rej|]. bools. ok_with; lia.
Qed.

(* ctts: the box size that makes entryCount+1 wrap is 16 + (2^32-1)*8 = 34359738376 (32 GiB) *)
Lemma alloc_ctts_bounded hs hl body : hs <> 34359738376 -> bounded (alloc_ctts hs hl body) 1 4 8 0 hs.
Proof.
  intros Hn. unfold alloc_ctts. pose proof (rd_n_lt body 4 rd0) as L0.
  destruct (rd_n body 4 rd0) as [vf s1]. pose proof (rd_n_lt body 4 s1) as L.
  destruct (rd_n body 4 s1) as [cnt s2]. cbn [fst] in L. change (256 ^ 4) with 4294967296 in L.
  destruct (negb (hs =? 16 + cnt * 8)) eqn:E; [apply bounded_rej|]. bools.
  assert (cnt + 1 < 4294967296) by lia.
  rewrite (N.mod_small (cnt + 1)) by assumption.
  destruct (cnt + 1 =? 0) eqn:E1; [bools; exfalso; lia|]. ok_with; lia.
Qed.

(* at exactly that size, with the count field 2^32-1, the decoder indexes an empty slice *)
Lemma alloc_ctts_panics hl body vf s1 s2 :
  rd_n body 4 rd0 = (vf, s1) -> rd_n body 4 s1 = (4294967295, s2) ->
  alloc_ctts 34359738376 hl body = Panic.
Proof. intros H1 H2. unfold alloc_ctts. rewrite H1, H2. reflexivity. Qed.

Lemma alloc_stsc_bounded hs hl body : bounded (alloc_stsc hs hl body) 2 0 12 0 hs.
Proof.
  unfold alloc_stsc. destruct (rd_n body 4 rd0) as [vf s1]. destruct (rd_n body 4 s1) as [cnt s2].
  destruct (negb (hs =? 16 + cnt * 12)) eqn:E; [apply bounded_rej|]. bools.
  destruct (stsc_loop body (N.to_nat cnt) 0 0 false s2) as [[extra s3]|].
  - pose proof (bN_le extra (4 * cnt)). ok_with; lia.
  - ok_with; lia.
Qed.

Lemma alloc_stsz_bounded hs hl body : bounded (alloc_stsz hs hl body) 1 0 4 0 hs.
Proof.
  unfold alloc_stsz. destruct (rd_n body 4 rd0) as [vf s1]. destruct (rd_n body 4 s1) as [u s2].
  destruct (rd_n body 4 s2) as [n s3].
  destruct (negb (hs =? (if 0 <? u then 20 else 20 + n * 4))) eqn:E; [apply bounded_rej|]. bools.
  destruct (u =? 0) eqn:Eu; bools.
  - subst u. rewrite N.ltb_irrefl in E. ok_with; lia.
  - ok_with; lia.
Qed.

Lemma alloc_stco_bounded hs hl body : bounded (alloc_stco hs hl body) 1 0 4 0 hs.
Proof.
  unfold alloc_stco. destruct (rd_n body 4 rd0) as [vf s1]. destruct (rd_n body 4 s1) as [cnt s2].
  destruct (negb (hs =? 16 + cnt * 4)) eqn:E; [apply bounded_rej|]. bools. ok_with; lia.
Qed.

Lemma alloc_co64_bounded hs hl body : bounded (alloc_co64 hs hl body) 1 0 8 0 hs.
Proof.
  unfold alloc_co64. destruct (rd_n body 4 rd0) as [vf s1]. destruct (rd_n body 4 s1) as [cnt s2].
  destruct (negb (hs =? 16 + cnt * 8)) eqn:E; [apply bounded_rej|]. bools.
  pose proof (rd_loop_x_le body cnt 8 s2) as L. destruct (rd_loop_x body cnt 8 s2) as [it s3]. cbn [fst] in L.
  ok_with; lia.
Qed.

Lemma alloc_stss_bounded hs hl body : bounded (alloc_stss hs hl body) 1 0 4 0 hs.
Proof.
  unfold alloc_stss. destruct (rd_n body 4 rd0) as [vf s1]. destruct (rd_n body 4 s1) as [cnt s2].
  destruct (negb (hs =? 16 + cnt * 4)) eqn:E; [apply bounded_rej|]. bools. ok_with; lia.
Qed.

Lemma alloc_sdtp_bounded hs hl body : bounded (alloc_sdtp hs hl body) 1 0 1 0 hs.
Proof.
  unfold alloc_sdtp, apayload_len. destruct (rd_n body 4 rd0) as [vf s1].
  destruct (Z.of_N hs - Z.of_N hl <? 4)%Z eqn:E; [apply bounded_rej|]. bools. ok_with; lia.
Qed.

Lemma alloc_saiz_bounded hs hl body : bounded (alloc_saiz hs hl body) 1 0 1 0 hs.
Proof.
  unfold alloc_saiz. destruct (rd_n body 4 rd0) as [vf s1]. set (fl := flags_of vf).
  set (sa := if has fl 1 then rd_skip body 4 (rd_skip body 4 s1) else s1).
  destruct (rd_n body 1 sa) as [d s2]. destruct (rd_n body 4 s2) as [cnt s3].
  destruct (negb (hs =? 17 + bN (has fl 1) 8 + bN (d =? 0) cnt)) eqn:E; [apply bounded_rej|]. bools.
  destruct (d =? 0) eqn:Ed; cbn [bN] in E; ok_with; lia.
Qed.

Lemma alloc_saio_bounded hs hl body : bounded (alloc_saio hs hl body) 2 0 4 0 hs.
Proof.
  unfold alloc_saio. destruct (rd_n body 4 rd0) as [vf s1]. set (fl := flags_of vf). set (v := version_of vf).
  set (sa := if has fl 1 then rd_skip body 4 (rd_skip body 4 s1) else s1).
  destruct (rd_n body 4 sa) as [cnt s2].
  set (e := if v =? 0 then 4 else 8).
  assert (He : 4 <= e) by (unfold e; destruct (v =? 0); lia).
  destruct (negb (hs =? 16 + bN (has fl 1) 8 + e * cnt)) eqn:E; [apply bounded_rej|]. bools.
  pose proof (rd_loop_x_le body cnt e s2) as L. destruct (rd_loop_x body cnt e s2) as [it s3]. cbn [fst] in L.
  ok_with; nia.
Qed.

Lemma alloc_senc_from_bounded s0 p hs hl body : bounded (alloc_senc_from s0 p hs hl body) 0 0 1 0 hs.
Proof.
  unfold alloc_senc_from. destruct (hs <? 16); [apply bounded_rej|].
  destruct (negb p && (lenN body <? 8)); [apply bounded_rej|].
  destruct (rd_n body 4 s0) as [vf s1]. destruct (0 <? version_of vf); [apply bounded_rej|].
  destruct (rd_n body 4 s1) as [cnt s2]. destruct p.
  - destruct (apayload_len hs hl - 8 <? 0)%Z; [apply bounded_rej|].
    destruct (has (flags_of vf) 2 && (Z.to_N (apayload_len hs hl - 8) <? 2 * cnt)); [apply bounded_rej|]. ok_with; lia.
  - destruct (has (flags_of vf) 2 && (lenN body - 8 <? 2 * cnt)); [apply bounded_rej|]. ok_with; lia.
Qed.

Lemma alloc_senc_bounded p hs hl body : bounded (alloc_senc p hs hl body) 0 0 1 0 hs.
Proof. apply alloc_senc_from_bounded. Qed.

Lemma alloc_uuid_bounded hs hl body : bounded (alloc_uuid hs hl body) 0 4144 1 255 hs.
Proof.
  unfold alloc_uuid. set (s := rd_skip body 16 rd0). set (u := if r_err s then [] else firstn 16 body).
  destruct (eqb_bytes u uuid_tfxd).
  { destruct (rd_n body 4 s) as [vf s1]. ok_with; lia. }
  destruct (eqb_bytes u uuid_tfrf).
  { destruct (rd_n body 4 s) as [vf s1]. pose proof (rd_n_lt body 1 s1) as L. destruct (rd_n body 1 s1) as [cnt s2].
    cbn [fst] in L. change (256 ^ 1) with 256 in L. ok_with; lia. }
  destruct (eqb_bytes u uuid_piff).
  { destruct (hs <? 16) eqn:E; [apply bounded_rej|]. bools.
    destruct (alloc_senc_from_bounded s true (hs - 16) 8 body) as (o & -> & Ha & Hi). ok_with; lia. }
  destruct (hs <? 24); [apply bounded_rej|]. ok_with; lia.
Qed.

Lemma alloc_ftyp_bounded hs hl body : bounded (alloc_ftyp hs hl body) 0 0 1 0 hs.
Proof. unfold alloc_ftyp. destruct (apayload_len hs hl <? 8)%Z; [apply bounded_rej|]. ok_with; lia. Qed.

Lemma alloc_styp_bounded p hs hl body : bounded (alloc_styp p hs hl body) 0 0 1 0 hs.
Proof.
  unfold alloc_styp. destruct p; [apply alloc_ftyp_bounded|]. destruct (lenN body <? 8); [apply bounded_rej|]. ok_with; lia.
Qed.

Lemma alloc_sbgp_bounded hs hl body : bounded (alloc_sbgp hs hl body) 1 0 8 0 hs.
Proof.
  unfold alloc_sbgp. destruct (rd_n body 4 rd0) as [vf s1]. set (v := version_of vf).
  set (sa := if v =? 1 then rd_skip body 4 (rd_skip body 4 s1) else rd_skip body 4 s1).
  destruct (rd_n body 4 sa) as [cnt s2].
  destruct (negb (hs =? 20 + bN (v =? 1) 4 + 8 * cnt)) eqn:E; [apply bounded_rej|]. bools.
  pose proof (rd_loop_x_le body cnt 8 s2) as L. destruct (rd_loop_x body cnt 8 s2) as [it s3]. cbn [fst] in L.
  ok_with; lia.
Qed.

(* ---- subs (no size guard).  One induction for the entry loop (C04TreeXModel.subs_run is subs_loop with the reader and
        Size() kept): where it leaves the reader, what it requests and how often it turns, against the bytes it has
        consumed.  An entry takes 6 + 8n bytes at least, requests 12n + 32 and turns n + 1 times; the entry read before
        an error may have appended 65535 sub-samples for nothing. ---- *)
Lemma subs_run_ok body esz cnt : 8 <= esz -> forall fuel i s al it sz,
  rd_in body s -> lenN body - r_pos s < N.of_nat fuel ->
  exists ok n al' it' s' sz', subs_run body fuel esz cnt i s al it sz = Ok (ok, n, al', it', s', sz') /\
    r_pos s <= r_pos s' <= lenN body /\
    al' <= al + 6 * (r_pos s' - r_pos s) + 786420 /\ it' <= it + (r_pos s' - r_pos s) + 65536 /\
    al' + it' <= al + it + 6 * (r_pos s' - r_pos s) + (if ok then 0 else 851956).
Proof.
  intros He. induction fuel as [|f IH]; intros i s al it sz Hp Hf; [lia|].
  cbn [subs_run]. destruct (cnt <=? i).
  { do 6 eexists. split; [reflexivity|]. unfold rd_in in Hp. cbv iota. lia. }
  pose proof (step_n body 4 s) as A. destruct (rd_n body 4 s) as [d s1]. cbn [snd] in A.
  pose proof (step_trans A (step_n body 2 s1)) as B. pose proof (rd_n_lt body 2 s1) as Lt.
  destruct (rd_n body 2 s1) as [ssc s2]. cbn [snd fst] in B, Lt. change (256 ^ 2) with 65536 in Lt.
  pose proof (step_trans B (step_loop body ssc esz s2)) as (M & In & Ok3 & _). clear A B.
  specialize (In Hp). unfold rd_in in *.
  destruct (r_err (rd_loop body ssc esz s2)) eqn:E.
  - do 6 eexists. split; [reflexivity|]. cbv iota. lia.
  - destruct (Ok3 eq_refl) as [_ P]. assert (H8 : 8 * ssc <= ssc * esz) by nia.
    destruct (IH (i + 1) (rd_loop body ssc esz s2) (al + 12 * ssc + 32) (it + 1 + ssc) (sz + 6 + ssc * esz) In ltac:(lia))
      as (ok & n & al' & it' & s' & sz' & -> & Hpos & Ha & Hi & Hs).
    do 6 eexists. split; [reflexivity|]. destruct ok; lia.
Qed.

Lemma subs_run_loop body esz cnt : forall fuel i s al it sz,
  subs_loop body fuel esz cnt i s al it =
  match subs_run body fuel esz cnt i s al it sz with
  | Ok (ok, n, al', it', _, _) => Ok (ok, n, al', it')
  | Err => Err | Panic => Panic | OutOfFuel => OutOfFuel
  end.
Proof.
  induction fuel as [|f IH]; intros i s al it sz; cbn [subs_loop subs_run]; [reflexivity|].
  destruct (cnt <=? i); [reflexivity|].
  destruct (rd_n body 4 s) as [d s1]. destruct (rd_n body 2 s1) as [ssc s2].
  destruct (r_err (rd_loop body ssc esz s2)); [reflexivity|]. apply IH.
Qed.

Lemma subs_total_alloc hs hl body :
  alloc_subs hs hl body = match subs_total body with
                          | Ok (o, _, _) => Ok o
                          | Err => Err | Panic => Panic | OutOfFuel => OutOfFuel end.
Proof.
  unfold alloc_subs, subs_total. destruct (rd_n body 4 rd0) as [vf s1]. destruct (rd_n body 4 s1) as [cnt s2].
  rewrite (subs_run_loop body _ cnt (S (length body)) 0 s2 0 0 16).
  destruct (subs_run body (S (length body)) (if version_of vf =? 1 then 10 else 8) cnt 0 s2 0 0 16)
    as [[[[[[ok n] al] it] s'] sz]| | |]; reflexivity.
Qed.

(* the whole decoder: what it returns, where the reader stands, and the four bounds of the loop from the start of the body *)
Lemma subs_total_spec body :
  exists o e sz, subs_total body = Ok (o, e, sz) /\ r_pos e <= lenN body /\
    o_alloc o <= 6 * r_pos e + 786420 /\ o_iters o <= r_pos e + 65536 /\
    o_alloc o + o_iters o <= 6 * r_pos e + (if o_ok o then 0 else 851956).
Proof.
  unfold subs_total.
  pose proof (step_n body 4 rd0) as A. destruct (rd_n body 4 rd0) as [vf s1]. cbn [snd] in A.
  pose proof (step_trans A (step_n body 4 s1)) as (M & In & _). destruct (rd_n body 4 s1) as [cnt s2]. cbn [snd] in M, In.
  specialize (In (N.le_0_l _)). cbn [r_pos rd0] in M.
  set (esz := if version_of vf =? 1 then 10 else 8).
  assert (He : 8 <= esz) by (subst esz; destruct (version_of vf =? 1); lia).
  destruct (subs_run_ok body esz cnt He (S (length body)) 0 s2 0 0 16 In ltac:(unfold lenN; lia))
    as (ok & n & al & it & s' & sz & -> & Hpos & Ha & Hi & Hs).
  do 3 eexists. split; [reflexivity|]. cbn [o_ok o_alloc o_iters]. destruct ok, (r_err s2); cbn [andb negb] in *; lia.
Qed.

Lemma alloc_subs_bounded hs hl body : bounded (alloc_subs hs hl body) 6 786420 1 65536 (lenN body).
Proof.
  rewrite subs_total_alloc. destruct (subs_total_spec body) as (o & e & sz & -> & Hp & Ha & Hi & _). ok_with; lia.
Qed.

Lemma alloc_elst_bounded hs hl body : bounded (alloc_elst hs hl body) 2 0 12 0 hs.
Proof.
  unfold alloc_elst. destruct (rd_n body 4 rd0) as [vf s1]. set (v := version_of vf).
  destruct (rd_n body 4 s1) as [cnt s2].
  destruct (negb (hs =? 16 + cnt * (if v =? 1 then 20 else 12))) eqn:E; [apply bounded_rej|]. bools.
  destruct (v =? 1) eqn:E1; [|destruct (v =? 0)]; ok_with; lia.
Qed.

Lemma tfra_entry_ge v sizes : 11 <= tfra_entry v sizes.
Proof. unfold tfra_entry. destruct (v =? 1); dlia. Qed.

Lemma alloc_tfra_bounded hs hl body : bounded (alloc_tfra hs hl body) 3 0 11 0 hs.
Proof.
  unfold alloc_tfra. destruct (rd_n body 4 rd0) as [vf s1]. set (v := version_of vf).
  destruct (rd_n body 4 (rd_skip body 4 s1)) as [sizes s2]. destruct (rd_n body 4 s2) as [cnt s3].
  pose proof (tfra_entry_ge v sizes) as G.
  destruct (negb (hs =? 24 + cnt * tfra_entry v sizes)) eqn:E; [apply bounded_rej|]. bools.
  ok_with; nia.
Qed.

Lemma alloc_sidx_bounded hs hl body : bounded (alloc_sidx hs hl body) 0 1048560 1 65535 hs.
Proof.
  unfold alloc_sidx. destruct (rd_n body 4 rd0) as [vf s1]. set (v := version_of vf).
  match goal with |- context [rd_n body 2 ?s] => pose proof (rd_n_lt body 2 s) as L; destruct (rd_n body 2 s) as [cnt s2] end.
  cbn [fst] in L. change (256 ^ 2) with 65536 in L. ok_with; lia.
Qed.

(* pssh has no size guard: the KID loop stops at the first read that does not fit, so it is bounded by the bytes
   the reader sees *)
Lemma alloc_pssh_bounded hs hl body : bounded (alloc_pssh hs hl body) 3 40 16 16 (lenN body).
Proof.
  unfold alloc_pssh. destruct (rd_n body 4 rd0) as [vf s1]. set (v := version_of vf).
  destruct (0 <? v).
  - destruct (rd_n body 4 (rd_skip body 16 s1)) as [cnt s2].
    pose proof (rd_loop_x_avail body cnt 16 s2) as L. destruct (rd_loop_x body cnt 16 s2) as [it s3]. cbn [fst] in L.
    destruct (r_err s3); [|destruct (rd_n body 4 s3) as [dl s4]]; ok_with; lia.
  - destruct (rd_n body 4 (rd_skip body 16 s1)) as [dl s4]. ok_with; lia.
Qed.

Lemma alloc_ssix_bounded hs hl body : bounded (alloc_ssix hs hl body) 3 0 8 0 hs.
Proof.
  unfold alloc_ssix. destruct (rd_n body 4 rd0) as [vf s1]. destruct (hs <? 16) eqn:E0; [apply bounded_rej|]. bools.
  destruct (rd_n body 4 s1) as [cnt s2].
  destruct (((hs - 16) / 8) mod 4294967296 <? cnt) eqn:E; [apply bounded_rej|]. bools.
  ok_with; dlia.
Qed.

Lemma alloc_treftype_bounded hs hl body : bounded (alloc_treftype hs hl body) 1 0 4 0 hs.
Proof. unfold alloc_treftype, apayload_len. ok_with; dlia. Qed.

Lemma alloc_leva_bounded hs hl body : bounded (alloc_leva_prologue hs hl body) 0 5100 1 255 hs.
Proof.
  unfold alloc_leva_prologue. destruct (rd_n body 4 rd0) as [vf s1].
  pose proof (rd_n_lt body 1 s1) as L. destruct (rd_n body 1 s1) as [cnt s2]. cbn [fst] in L.
  change (256 ^ 1) with 256 in L. ok_with; lia.
Qed.

(* ---- sgpd / alst ---- *)
(* an alst entry requests what the reader still sees (the repaired text checks the second count against it) plus the
   16-bit roll_count; when it reports ok it has consumed exactly 4 + 4*it bytes = its Size() *)
Lemma alloc_alst_entry_spec body len1 s :
  exists ok al it s', alloc_alst_entry true body len1 s = Ok (ok, al, it, s') /\
    al <= lenN body + 262140 /\ 4 * it <= lenN body + 262140 /\ (rd_in body s -> rd_in body s') /\
    (ok = true -> r_pos s' = r_pos s + 4 + 4 * it /\ al = 4 * it).
Proof.
  unfold alloc_alst_entry.
  pose proof (step_n body 2 s) as A. pose proof (rd_n_lt body 2 s) as L.
  destruct (rd_n body 2 s) as [roll s1]. cbn [fst snd] in A, L. change (256 ^ 2) with 65536 in L.
  pose proof (step_trans A (step_n body 2 s1)) as B. destruct (rd_n body 2 s1) as [x s2]. cbn [snd] in B.
  pose proof (step_trans B (step_loop body roll 4 s2)) as (_ & In3 & Ok3 & _). clear A B.
  set (s3 := rd_loop body roll 4 s2) in *. cbn [andb].
  destruct (r_err s3) eqn:E3; [do 4 eexists; split; [reflexivity|]; repeat split; try assumption; try lia; discriminate|].
  destruct (Ok3 eq_refl) as [_ P3].
  destruct (len1 <? 4 + 4 * roll); [do 4 eexists; split; [reflexivity|]; repeat split; try assumption; try lia; discriminate|].
  set (rem := ((len1 + 4294967296 - (4 + 4 * roll)) mod 4294967296) / 4). clearbody rem.
  destruct (rem =? 0) eqn:Er; [do 4 eexists; split; [reflexivity|]; repeat split; try assumption; lia|].
  destruct ((lenN body - r_pos s3) / 4 <? rem) eqn:E; [do 4 eexists; split; [reflexivity|]; repeat split; try assumption; try lia; discriminate|].
  bools. pose proof (N.mul_div_le (lenN body - r_pos s3) 4 ltac:(discriminate)) as M.
  pose proof (step_loop body rem 4 s3) as (_ & In4 & Ok4 & _).
  do 4 eexists; split; [reflexivity|]. split; [lia|]. split; [lia|]. split; [auto|].
  intros H. apply negb_true_iff, Ok4 in H. lia.
Qed.

Lemma alloc_sgpd_alst_bounded hs hl body : bounded (alloc_sgpd_alst true hs hl body) 1 262140 4 262140 (lenN body).
Proof.
  unfold alloc_sgpd_alst. destruct (rd_n body 4 rd0) as [vf s1]. set (v := version_of vf).
  match goal with |- context [if 1 <=? v then ?a else ?b] => destruct (if 1 <=? v then a else b) as [dlen s2] end.
  match goal with |- context [rd_n body 4 ?s] => destruct (rd_n body 4 s) as [cnt s3] end.
  destruct (cnt =? 0); [ok_with; lia|].
  match goal with |- context [if ?c then rd_n body 4 s3 else ?b] => destruct (if c then rd_n body 4 s3 else b) as [len1 s4] end.
  destruct (len1 =? 0); [apply bounded_rej|].
  destruct (alloc_alst_entry_spec body len1 s4) as (ok & al & it & s' & -> & Ha & Hi & _). ok_with; lia.
Qed.

(* the pinned alst text: a 20-byte sgpd payload (version 1, default_length 2, one entry, roll_count 0) makes the
   decoder request 2 x 2^31 - 4 bytes *)
Definition alst_witness : list N := [1;0;0;0; 97;108;115;116; 0;0;0;2; 0;0;0;1; 0;0;0;0].
Lemma alloc_sgpd_alst_pinned_balloons :
  exists o, alloc_sgpd_alst false 28 8 alst_witness = Ok o /\ o_alloc o = 4294967292 /\ lenN alst_witness = 20.
Proof. eexists. split; [vm_compute; reflexivity|]. split; reflexivity. Qed.

Lemma alloc_ftyp_styp_bounded p hs hl body :
  bounded (alloc_ftyp hs hl body) 0 0 1 0 hs /\ bounded (alloc_styp p hs hl body) 0 0 1 0 hs.
Proof. split; [apply alloc_ftyp_bounded|apply alloc_styp_bounded]. Qed.

(* ---- sgpd: the whole entry loop ---- *)
Ltac fin5 := do 5 eexists; split; [reflexivity|]; split; [lia|]; split; [lia|]; split; [lia|]; intros Ok1 Hsz.

(* an entry of any kind stays inside the bytes seen; one that is accepted with Size() = the description length has
   consumed at least a byte, and requests and turns in proportion to what it consumed *)
Lemma sg_entry_spec k body len1 s : rd_in body s -> len1 <> 0 ->
  exists ok size a its s', sg_entry k body len1 s = (ok, size, a, its, s') /\
    a <= lenN body + 262204 /\ its <= lenN body + 65535 /\ rd_in body s' /\
    (ok = true -> size = len1 -> r_pos s + 1 <= r_pos s' /\ a <= 64 + (r_pos s' - r_pos s) /\ its <= r_pos s' - r_pos s).
Proof.
  intros Hp Hl. unfold rd_in in *. destruct k; cbn [sg_entry].
  - (* seig: 20 bytes, then an optional constant IV *)
    pose proof (step_trans (step_skip body 1 s) (step_skip body 1 _)) as A.
    set (s2 := rd_skip body 1 (rd_skip body 1 s)) in *.
    pose proof (step_trans A (step_n body 1 s2)) as B. destruct (rd_n body 1 s2) as [prot s3]. cbn [snd] in B.
    pose proof (step_trans B (step_n body 1 s3)) as C. destruct (rd_n body 1 s3) as [piv s4]. cbn [snd] in C.
    pose proof (step_trans C (step_skip body 16 s4)) as D. set (s5 := rd_skip body 16 s4) in *. clear A B C.
    destruct ((prot =? 1) && (piv =? 0)).
    + pose proof (step_trans D (step_n body 1 s5)) as F. destruct (rd_n body 1 s5) as [civ s6]. cbn [snd] in F.
      pose proof (step_trans F (step_skip body civ s6)) as (_ & In & Ok7 & _). set (s7 := rd_skip body civ s6) in *.
      specialize (In Hp). unfold rd_in in In.
      destruct (negb (len1 =? 21 + (if r_err s7 then 0 else civ))); fin5; [discriminate|].
      apply negb_true_iff, Ok7 in Ok1. lia.
    + destruct D as (_ & In & Ok5 & _). specialize (In Hp). unfold rd_in in In.
      destruct (negb (len1 =? 20)); fin5; [discriminate|]. apply negb_true_iff, Ok5 in Ok1. lia.
  - (* roll *)
    pose proof (step_skip body 2 s) as (_ & In & Ok2 & _). specialize (In Hp). unfold rd_in in In.
    fin5. apply negb_true_iff, Ok2 in Ok1. lia.
  - (* rap *)
    pose proof (step_skip body 1 s) as (_ & In & Ok2 & _). specialize (In Hp). unfold rd_in in In.
    fin5. apply negb_true_iff, Ok2 in Ok1. lia.
  - (* alst *)
    destruct (alloc_alst_entry_spec body len1 s) as (ok & al & it & s' & -> & Ha & Hi & Hq & Hk).
    specialize (Hq Hp). unfold rd_in in Hq. fin5. destruct (Hk Ok1). lia.
  - (* other *)
    pose proof (step_skip body len1 s) as (_ & In & Ok2 & _). specialize (In Hp). unfold rd_in in In.
    fin5. apply negb_true_iff, Ok2 in Ok1. lia.
Qed.

Lemma sgpd_loop_bounded body k v dlen cnt : forall fuel i s al it,
  rd_in body s -> lenN body - r_pos s < N.of_nat fuel ->
  exists ok n al' it', sgpd_loop body fuel k v dlen cnt i s al it = Ok (ok, n, al', it') /\
    al' <= al + 85 * (lenN body - r_pos s) + lenN body + 262208 /\
    it' <= it + 2 * (lenN body - r_pos s) + lenN body + 65536.
Proof.
  induction fuel as [|f IH]; intros i s al it Hp Hf; [lia|].
  cbn [sgpd_loop]. destruct (cnt <=? i); [do 4 eexists; split; [reflexivity|lia]|].
  (* the description length: the default, or four more bytes *)
  assert (V : exists len1 s1 al1, (if (1 <=? v) && (dlen =? 0) then (let '(l, s0) := rd_n body 4 s in (l, s0, al + 4)) else (dlen, s, al)) = (len1, s1, al1)
              /\ r_pos s <= r_pos s1 /\ rd_in body s1 /\ al1 <= al + 4 /\ (al1 = al \/ r_pos s1 = r_pos s + 4 \/ r_err s1 = true)).
  { destruct ((1 <=? v) && (dlen =? 0)).
    - pose proof (step_n body 4 s) as (M & In & Ok1 & _). destruct (rd_n body 4 s) as [l s0]. cbn [snd] in *.
      do 3 eexists; split; [reflexivity|]. repeat split; auto; try lia.
      destruct (r_err s0) eqn:E; [auto|]. right; left. apply Ok1. reflexivity.
    - do 3 eexists; split; [reflexivity|]. repeat split; try lia; auto. }
  destruct V as (len1 & s1 & al1 & -> & V1 & V2 & V3 & V4).
  destruct (len1 =? 0) eqn:E0; [do 4 eexists; split; [reflexivity|lia]|]. bools.
  destruct (sg_entry_spec k body len1 s1 V2 E0) as (ok & size & a & its & s' & -> & Ha & Hi & Hq & Hk). unfold rd_in in *.
  destruct ok; cbn [negb]; [|do 4 eexists; split; [reflexivity|lia]].
  destruct (size =? len1) eqn:Es; cbn [negb]; [|do 4 eexists; split; [reflexivity|lia]]. bools.
  destruct (Hk eq_refl Es) as (K1 & K2 & K3).
  destruct (IH (i + 1) s' (al1 + a + 16) (it + 1 + its) Hq ltac:(lia)) as (ok2 & n & al' & it' & -> & Ha' & Hi').
  do 4 eexists; split; [reflexivity|]. lia.
Qed.

Lemma alloc_sgpd_bounded hs hl body :
  exists o, alloc_sgpd hs hl body = Ok o /\ o_alloc o <= 86 * lenN body + 262208 /\ o_iters o <= 3 * lenN body + 65536.
Proof.
  unfold alloc_sgpd.
  assert (P1 := rd_n_pos body 4 rd0 (N.le_0_l _)). destruct (rd_n body 4 rd0) as [vf s1]. cbn [snd] in P1.
  set (v := version_of vf). set (k := sgkind_of (firstn 4 (skipn 4 body))).
  pose proof (rd_skip_pos body 4 s1 P1) as P2. set (s2 := rd_skip body 4 s1) in *.
  assert (V : exists dlen s3, (if 1 <=? v then rd_n body 4 s2 else (0, s2)) = (dlen, s3) /\ rd_in body s3).
  { destruct (1 <=? v).
    - pose proof (rd_n_pos body 4 s2 P2). destruct (rd_n body 4 s2) as [d s3]. do 2 eexists; split; [reflexivity|assumption].
    - do 2 eexists; split; [reflexivity|assumption]. }
  destruct V as (dlen & s3 & -> & P3).
  assert (P4 : rd_in body (if 2 <=? v then rd_skip body 4 s3 else s3)).
  { destruct (2 <=? v); [apply rd_skip_pos|]; exact P3. }
  set (s4 := if 2 <=? v then rd_skip body 4 s3 else s3) in *.
  assert (P5 := rd_n_pos body 4 s4 P4). destruct (rd_n body 4 s4) as [cnt s5]. cbn [snd] in P5.
  destruct (sgpd_loop_bounded body k v dlen cnt (S (length body)) 0 s5 0 0 P5) as (ok & n & al & it & -> & Ha & Hi).
  { unfold lenN in *. lia. }
  eexists; split; [reflexivity|]. cbn [o_alloc o_iters]. lia.
Qed.

(* ---- senc second phase ---- *)
(* parseAndFillSamples checks NrRemainingBytes before every read: the reader never carries an error, and an
   iteration that goes on has taken at least the two bytes of its sub-sample count *)
Lemma senc_fill_loop_bounded raw iv cnt : forall fuel i s nIV al it,
  r_err s = false -> rd_in raw s -> lenN raw - r_pos s < N.of_nat fuel ->
  exists ok nIV' al' it' s', senc_fill_loop raw fuel iv cnt i s nIV al it = Ok (ok, nIV', al', it', s') /\
    al' <= al + 12 * (lenN raw - r_pos s) + 24 /\ it' <= it + (lenN raw - r_pos s) + 1.
Proof.
  induction fuel as [|f IH]; intros i s nIV al it He Hp Hf; [lia|]. unfold rd_in in *.
  cbn [senc_fill_loop]. unfold rem_of.
  destruct (cnt <=? i); [do 5 eexists; split; [reflexivity|lia]|].
  destruct ((0 <? iv) && (lenN raw - r_pos s <? iv)) eqn:G; [do 5 eexists; split; [reflexivity|lia]|].
  assert (V : exists s1 n1 a1, (if 0 <? iv then (rd_skip raw iv s, nIV + 1, al + 24) else (s, nIV, al)) = (s1, n1, a1) /\
              r_err s1 = false /\ r_pos s <= r_pos s1 /\ r_pos s1 <= lenN raw /\ a1 <= al + 24 /\
              a1 + 12 * (lenN raw - r_pos s1) <= al + 12 * (lenN raw - r_pos s) + 12).
  { destruct (0 <? iv) eqn:Ei; cbn [andb] in G; bools.
    - pose proof (step_skip raw iv s) as (M & In & Ok1 & F). specialize (F He ltac:(lia)). destruct (Ok1 F) as [_ P].
      do 3 eexists; split; [reflexivity|]. repeat split; try lia; auto.
    - do 3 eexists; split; [reflexivity|]. repeat split; try lia; auto. }
  destruct V as (s1 & n1 & a1 & -> & E1 & V1 & V2 & V3 & V4).
  destruct (lenN raw - r_pos s1 <? 2) eqn:G2; [do 5 eexists; split; [reflexivity|lia]|]. bools.
  pose proof (step_n raw 2 s1) as (_ & _ & Ok2 & F2). specialize (F2 E1 ltac:(lia)). destruct (Ok2 F2) as [_ P2].
  destruct (rd_n raw 2 s1) as [ssc s2]. cbn [snd] in F2, P2. clear Ok2.
  destruct (lenN raw - r_pos s2 <? ssc * 6) eqn:G3; [do 5 eexists; split; [reflexivity|lia]|]. bools.
  pose proof (step_loop raw ssc 6 s2) as (_ & _ & Ok3 & F3). specialize (F3 F2 ltac:(lia)). destruct (Ok3 F3) as [_ P3].
  destruct (IH (i + 1) (rd_loop raw ssc 6 s2) n1 (a1 + 8 * ssc) (it + 1 + ssc) F3 ltac:(lia) ltac:(lia)) as (ok & n' & al' & it' & s' & -> & Ha & Hi).
  do 5 eexists; split; [reflexivity|]. lia.
Qed.

Lemma senc_fill_bounded raw iv cnt : 2 * cnt <= lenN raw + 8 ->
  exists ok a b al it, senc_fill raw iv cnt = Ok (ok, a, b, al, it) /\ al <= 24 * lenN raw + 120 /\ it <= lenN raw + 1.
Proof.
  intros Hc. unfold senc_fill.
  destruct (senc_fill_loop_bounded raw iv cnt (S (length raw)) 0 rd0 0 (24 * cnt) 0 eq_refl (N.le_0_l _)) as (ok & n & al & it & s & -> & Ha & Hi).
  { cbn [r_pos rd0]. unfold lenN. lia. }
  cbn [r_pos rd0] in Ha, Hi.
  destruct (negb ok || negb (rem_of raw s =? 0)); do 5 eexists; (split; [reflexivity|]); split; lia.
Qed.

(* ParseReadBox under the guard established by the first phase (subsample flag => 2 * count <= len(rawData) + 8) *)
Lemma senc_parse_bounded fl cnt raw iv : (has fl 2 = true -> 2 * cnt <= lenN raw + 8) ->
  exists ok a b al it, senc_parse fl cnt raw iv = Ok (ok, a, b, al, it) /\ al <= 72 * lenN raw + 360 /\ it <= 3 * lenN raw + 3.
Proof.
  intros Hg. unfold senc_parse.
  destruct ((cnt =? 0) || (lenN raw =? 0)); [do 5 eexists; split; [reflexivity|lia]|].
  destruct (has fl 2) eqn:Hf; cbn [negb].
  - specialize (Hg eq_refl).
    destruct (negb (iv =? 0)).
    + destruct (senc_fill_bounded raw iv cnt Hg) as (ok & a & b & al & it & -> & ? & ?). do 5 eexists; split; [reflexivity|lia].
    + destruct (senc_fill_bounded raw 0 cnt Hg) as (ok0 & a0 & b0 & al0 & it0 & -> & ? & ?).
      destruct ok0; [do 5 eexists; split; [reflexivity|lia]|].
      destruct (senc_fill_bounded raw 8 cnt Hg) as (ok1 & a1 & b1 & al1 & it1 & -> & ? & ?).
      destruct ok1; [do 5 eexists; split; [reflexivity|lia]|].
      destruct (senc_fill_bounded raw 16 cnt Hg) as (ok2 & a2 & b2 & al2 & it2 & -> & ? & ?).
      do 5 eexists; split; [reflexivity|lia].
  - set (left := lenN raw mod 4294967296).
    assert (Hl : left <= lenN raw) by (apply N.mod_le; discriminate). clearbody left.
    set (iv' := if iv =? 0 then (left / cnt) mod 256 else iv). clearbody iv'.
    destruct (iv' * cnt =? left) eqn:E; cbn [negb]; [|do 5 eexists; split; [reflexivity|lia]]. bools.
    destruct (iv' =? 0) eqn:E0; [do 5 eexists; split; [reflexivity|lia]|]. bools.
    assert (cnt <= lenN raw) by nia.
    destruct ((iv' =? 8) || (iv' =? 16)); do 5 eexists; (split; [reflexivity|]); lia.
Qed.

Lemma raw_len hs hl (body : list N) : lenN (firstn (Z.to_nat (apayload_len hs hl - 8)) (skipn 8 body))
  = N.min (Z.to_N (Z.of_N hs - Z.of_N hl - 8)) (lenN body - 8).
Proof. unfold lenN, apayload_len. rewrite firstn_length, skipn_length. lia. Qed.

(* the first phase establishes that guard (header length 8 or 16; on the reader path the body is exactly the payload) *)
Lemma senc_guard_established p hs hl body o : hl <= 16 -> (p = false -> lenN body = hs - hl) ->
  alloc_senc p hs hl body = Ok o -> o_ok o = true ->
  has (flags_of (fst (rd_n body 4 rd0))) 2 = true ->
  2 * o_count o <= lenN (firstn (Z.to_nat (apayload_len hs hl - 8)) (skipn 8 body)) + 8.
Proof.
  intros Hl Hb. unfold alloc_senc, alloc_senc_from.
  destruct (hs <? 16) eqn:E16; [unfold rej; intros [= <-]; discriminate|].
  destruct (negb p && (lenN body <? 8)) eqn:E8; [unfold rej; intros [= <-]; discriminate|].
  pose proof (step_n body 4 rd0) as A. destruct (rd_n body 4 rd0) as [vf s1]. cbn [snd fst] in *.
  destruct (0 <? version_of vf); [unfold rej; intros [= <-]; discriminate|].
  pose proof (step_trans A (step_n body 4 s1)) as (_ & In2 & Ok2 & _). destruct (rd_n body 4 s1) as [cnt s2]. cbn [snd r_pos rd0] in In2, Ok2.
  specialize (In2 (N.le_0_l _)).
  bools. rewrite raw_len. unfold apayload_len.
  destruct p.
  - destruct (Z.of_N hs - Z.of_N hl - 8 <? 0)%Z eqn:Ez0; [unfold rej; intros [= <-]; discriminate|].
    destruct (has (flags_of vf) 2 && (Z.to_N (Z.of_N hs - Z.of_N hl - 8) <? 2 * cnt)) eqn:G; [unfold rej; intros [= <-]; discriminate|].
    unfold afin. intros [= <-]. cbn [o_ok o_count andb]. intros Eok Hf. rewrite Hf in G. cbn [andb] in G. bools.
    unfold rd_bytes_z in Eok. destruct (Z.of_N hs - Z.of_N hl - 8 <? 0)%Z; [discriminate|].
    pose proof (step_skip body (Z.to_N (Z.of_N hs - Z.of_N hl - 8)) s2) as (_ & In & Ok3 & _).
    destruct (Ok3 Eok) as [E2 P3]. destruct (Ok2 E2) as [_ P2]. specialize (In In2). unfold rd_in in In. lia.
  - specialize (Hb eq_refl).
    destruct (has (flags_of vf) 2 && (lenN body - 8 <? 2 * cnt)) eqn:G; [unfold rej; intros [= <-]; discriminate|].
    unfold afin. intros [= <-]. cbn [o_ok o_count andb]. intros _ Hf. rewrite Hf in G. cbn [andb] in G. bools.
    cbn [andb negb] in E8. bools. lia.
Qed.


(* ---- hvcC ---- *)
(* an accepted NALU has taken at least its two length bytes and adds a 24-byte slice header: 12 per byte *)
Lemma hvcc_nalus_bounded raw n : forall fuel i s al it,
  rd_in raw s -> lenN raw - r_pos s < N.of_nat fuel ->
  exists failed al' it' s', hvcc_nalus raw fuel n i s al it = Ok (failed, al', it', s') /\
    r_pos s <= r_pos s' /\ rd_in raw s' /\
    al' <= al + 12 * (r_pos s' - r_pos s) + (if failed then 24 else 0) /\ it' <= it + (r_pos s' - r_pos s) + (if failed then 1 else 0).
Proof.
  induction fuel as [|f IH]; intros i s al it Hp Hf; [lia|]. unfold rd_in in *.
  cbn [hvcc_nalus]. destruct (n <=? i); [do 4 eexists; split; [reflexivity|]; cbv iota; lia|].
  pose proof (step_n raw 2 s) as A. destruct (rd_n raw 2 s) as [len s1]. cbn [snd] in A.
  pose proof (step_trans A (step_skip raw len s1)) as (M & In & Ok2 & _). set (s2 := rd_skip raw len s1) in *. clear A.
  specialize (In Hp). unfold rd_in in In.
  destruct (r_err s2) eqn:E2.
  - do 4 eexists; split; [reflexivity|]. cbv iota. lia.
  - destruct (Ok2 eq_refl) as [_ P].
    destruct (IH (i + 1) s2 (al + 24) (it + 1) In ltac:(lia)) as (fl & al' & it' & s' & -> & Q1 & Q2 & Q3 & Q4).
    do 4 eexists; split; [reflexivity|]. destruct fl; lia.
Qed.

Lemma hvcc_arrays_bounded raw : forall n s arrays al it, rd_in raw s ->
  exists failed a al' it' s', hvcc_arrays raw n s arrays al it = Ok (failed, a, al', it', s') /\
    al' <= al + 12 * (lenN raw - r_pos s) + 24 + 32 * N.of_nat n /\ it' <= it + (lenN raw - r_pos s) + 1 + N.of_nat n.
Proof.
  induction n as [|n IH]; intros s arrays al it Hp; [do 5 eexists; split; [reflexivity|lia]|].
  cbn [hvcc_arrays].
  pose proof (step_trans (step_skip raw 1 s) (step_n raw 2 _)) as (M & In & _).
  destruct (rd_n raw 2 (rd_skip raw 1 s)) as [nn s2]. cbn [snd] in M, In. specialize (In Hp).
  destruct (hvcc_nalus_bounded raw nn (S (length raw)) 0 s2 al (it + 1) In ltac:(unfold lenN; lia)) as (fl & al1 & it1 & s3 & -> & Q1 & Q2 & Q3 & Q4).
  unfold rd_in in *. destruct fl.
  - do 5 eexists; split; [reflexivity|]. lia.
  - destruct (IH s3 (arrays + 1) (al1 + 32) it1 Q2) as (f2 & a2 & al2 & it2 & s4 & -> & R1 & R2).
    do 5 eexists; split; [reflexivity|]. lia.
Qed.

Lemma hvcc_record_bounded raw : bounded (hvcc_record raw) 12 8184 1 256 (lenN raw).
Proof.
  unfold hvcc_record.
  assert (P1 := rd_n_pos raw 1 rd0 (N.le_0_l _)). destruct (rd_n raw 1 rd0) as [ver s1]. cbn [snd] in P1.
  destruct (negb (ver =? 1)); [apply bounded_rej|].
  match goal with |- context [rd_n raw 1 ?s] =>
    assert (P2 : rd_in raw s) by (repeat apply rd_skip_pos; exact P1);
    assert (P3 := rd_n_pos raw 1 s P2); destruct (rd_n raw 1 s) as [ab s2] end. cbn [snd] in P3.
  destruct (negb (ab mod 4 =? 3)); [apply bounded_rej|].
  pose proof (rd_n_lt raw 1 s2) as L. assert (Hp := rd_n_pos raw 1 s2 P3).
  destruct (rd_n raw 1 s2) as [na s3]. cbn [fst snd] in L, Hp. change (256 ^ 1) with 256 in L.
  destruct (hvcc_arrays_bounded raw (N.to_nat na) s3 0 0 0 Hp) as (f & a & al & it & s' & -> & Ha & Hi).
  ok_with; lia.
Qed.

Lemma lenN_firstn {A} n (l : list A) : lenN (firstn n l) <= lenN l.
Proof. unfold lenN. rewrite firstn_length. lia. Qed.
Lemma lenN_skipn {A} n (l : list A) : lenN (skipn n l) <= lenN l.
Proof. unfold lenN. rewrite skipn_length. lia. Qed.

Lemma alloc_hvcc_bounded p hs hl body : bounded (alloc_hvcc p hs hl body) 12 8184 1 256 (lenN body).
Proof.
  unfold alloc_hvcc. destruct p; [|apply hvcc_record_bounded].
  destruct (r_err (rd_bytes_z body (apayload_len hs hl) rd0)).
  - eapply bounded_weaken; [apply hvcc_record_bounded| | | |]; cbn; lia.
  - eapply bounded_weaken; [apply hvcc_record_bounded| | | |]; try lia. apply lenN_firstn.
Qed.

(* ---- tlou / alou ---- *)
Lemma lou_loop_bounded raw v : forall n s al it,
  let '(al', it', _) := lou_loop raw n v s al it in al' <= al + 1060 * N.of_nat n /\ it' <= it + 256 * N.of_nat n.
Proof.
  induction n as [|n IH]; intros s al it; [cbn; lia|].
  cbn [lou_loop].
  match goal with |- context [rd_n raw 1 ?s0] => pose proof (rd_n_lt raw 1 s0) as L; destruct (rd_n raw 1 s0) as [mc s1] end.
  cbn [fst] in L. change (256 ^ 1) with 256 in L.
  specialize (IH (rd_loop raw mc 3 s1) (al + 40 + 4 * mc) (it + 1 + mc)).
  destruct (lou_loop raw n v (rd_loop raw mc 3 s1) (al + 40 + 4 * mc) (it + 1 + mc)) as [[al' it'] s'].
  lia.
Qed.

Lemma alloc_lou_bounded hs hl body : bounded (alloc_lou hs hl body) 0 67284 1 16128 hs.
Proof.
  unfold alloc_lou. destruct (rd_n body 4 rd0) as [vf s1]. set (v := version_of vf).
  destruct (1 <=? v).
  - destruct (rd_n body 1 s1) as [b s2]. destruct (negb ((b / 64) mod 4 =? 0)); [apply bounded_rej|].
    assert (Hc : b mod 64 < 64) by (apply N.mod_lt; discriminate).
    pose proof (lou_loop_bounded body v (N.to_nat (b mod 64)) s2 (8 * (b mod 64)) 0) as H.
    destruct (lou_loop body (N.to_nat (b mod 64)) v s2 (8 * (b mod 64)) 0) as [[al it] s']. ok_with; lia.
  - pose proof (lou_loop_bounded body v 1 s1 8 0) as H.
    destruct (lou_loop body 1 v s1 8 0) as [[al it] s']. ok_with; lia.
Qed.

(* ---- avcC ---- *)
Lemma avcc_nalus_count raw : forall n pos cnt pos' c, avcc_nalus raw n pos cnt = Some (pos', c) -> c <= cnt + N.of_nat n.
Proof.
  induction n as [|n IH]; intros pos cnt pos' c; cbn [avcc_nalus]; [intros [= <- <-]; lia|].
  destruct (lenN raw <? pos + 2); [discriminate|].
  destruct (lenN raw <? pos + 2 + (byte_at raw pos * 256 + byte_at raw (pos + 1))); [discriminate|].
  intros H. apply IH in H. lia.
Qed.

Lemma avcc_record_bounded raw n : bounded (avcc_record raw) 0 6912 1 286 n.
Proof.
  unfold avcc_record. destruct (lenN raw <? 6); [apply bounded_rej|].
  destruct (negb (byte_at raw 0 =? 1)); [apply bounded_rej|].
  destruct (negb (byte_at raw 4 mod 4 =? 3)); [apply bounded_rej|].
  assert (H5 : byte_at raw 5 mod 32 < 32) by (apply N.mod_lt; discriminate).
  destruct (avcc_nalus raw (N.to_nat (byte_at raw 5 mod 32)) 6 0) as [[pos c1]|] eqn:E1; [|ok_with; lia].
  apply avcc_nalus_count in E1.
  destruct (lenN raw <=? pos); [ok_with; lia|].
  assert (Hp : byte_at raw pos < 256) by (unfold byte_at; apply N.mod_lt; discriminate).
  destruct (avcc_nalus raw (N.to_nat (byte_at raw pos)) (pos + 1) 0) as [[pos2 c2]|] eqn:E2; [|ok_with; lia].
  apply avcc_nalus_count in E2.
  repeat match goal with |- context [if ?c then _ else _] => destruct c end; ok_with; lia.
Qed.

Lemma alloc_avcc_bounded p hs hl body : bounded (alloc_avcc p hs hl body) 0 6912 1 286 hs.
Proof. unfold alloc_avcc. destruct p; apply avcc_record_bounded. Qed.

(* ---- box level ---- *)
(* every prologue bound above, weakened to one shape: a * m + b bytes, i * m + c iterations, for whatever m dominates
   the box size or the bytes seen that the bound was stated in *)
Lemma bounded_le r a b e c n m A B I C : bounded r a b e c n ->
  1 <= e -> a * n + b <= A * m + B -> n + c <= I * m + C ->
  exists o, r = Ok o /\ o_alloc o <= A * m + B /\ o_iters o <= I * m + C.
Proof. intros (o & -> & Ha & Hi) He H1 H2. exists o. split; [reflexivity|]. split; nia. Qed.

Create HintDb prologue discriminated.
Hint Resolve alloc_trun_bounded alloc_stts_bounded alloc_ctts_bounded alloc_stsc_bounded alloc_stsz_bounded
  alloc_stco_bounded alloc_co64_bounded alloc_stss_bounded alloc_sdtp_bounded alloc_saiz_bounded alloc_saio_bounded
  alloc_senc_bounded alloc_sbgp_bounded alloc_subs_bounded alloc_elst_bounded alloc_tfra_bounded alloc_sidx_bounded
  alloc_pssh_bounded alloc_ssix_bounded alloc_treftype_bounded alloc_leva_bounded alloc_uuid_bounded alloc_ftyp_bounded
  alloc_styp_bounded alloc_hvcc_bounded alloc_avcc_bounded alloc_lou_bounded : prologue.

(* the 14 table boxes with an exact size guard: bounded by the box size alone *)
Lemma guarded_bounded t p hs hl body : guarded t = true -> hs <> 34359738376%N ->
  exists o, alloc_table t p hs hl body = Ok o /\ (o_alloc o <= 4 * hs + 16384)%N /\ (o_iters o <= 1 * hs + 4096)%N.
Proof.
  intros G Hn. destruct t; try discriminate G; cbn [alloc_table];
    (eapply bounded_le; [solve [auto with prologue]|lia..]).
Qed.

Definition bounded_tab (r : res aout) (n : N) : Prop :=
  exists o, r = Ok o /\ o_alloc o <= 86 * n + 1048560 /\ o_iters o <= 3 * n + 65536.

Lemma alloc_table_bounded t p hs hl body : hs <> 34359738376 ->
  bounded_tab (alloc_table t p hs hl body) (hs + lenN body).
Proof.
  intros Hn. destruct t; cbn [alloc_table];
    try (eapply bounded_le; [solve [auto with prologue]|lia..]).
  destruct (alloc_sgpd_bounded hs hl body) as (o & -> & ? & ?). exists o. split; [reflexivity|]. lia.
Qed.

Definition bounded_box (r : res aout) (n : N) : Prop :=
  exists o, r = Ok o /\ o_alloc o <= 172 * n + 1048560 /\ o_iters o <= 6 * n + 65536.

Lemma bounded_box_rej n : bounded_box rej n.
Proof. exists (mkO false 0 0 0). cbn. repeat split; lia. Qed.

(* DecodeBoxSR / DecodeBox on ANY byte string whose box type is one of the modelled table boxes: the prologue
   returns, allocates at most 172 * len + 1048560 bytes and loops at most 6 * len + 65536 times (the factor is that
   of the sgpd entry loop: 86 per byte of box size + bytes seen; every other box stays below 12 * len) *)
Lemma alloc_box_sr_bounded bs : lenN bs < 34359738376 -> match alloc_box_sr bs with
                                | Some r => bounded_box r (lenN bs)
                                | None => True end.
Proof.
  intros Hs. unfold alloc_box_sr. destruct (hdr_of bs) as [[hs hl]|]; [|apply bounded_box_rej].
  destruct (tbox_of (name_of bs)) as [t|]; [|exact I].
  destruct (lenN bs <? hs) eqn:E; [apply bounded_box_rej|]. bools.
  destruct (alloc_table_bounded t true hs hl (skipn (N.to_nat hl) bs) ltac:(lia)) as (o & -> & Ha & Hi).
  pose proof (lenN_skipn (N.to_nat hl) bs). exists o. split; [reflexivity|]. lia.
Qed.

Lemma alloc_box_r_bounded bs : lenN bs < 34359738376 -> match alloc_box_r bs with
                               | Some r => bounded_box r (lenN bs)
                               | None => True end.
Proof.
  intros Hs. unfold alloc_box_r. destruct (hdr_of bs) as [[hs hl]|]; [|apply bounded_box_rej].
  destruct (tbox_of (name_of bs)) as [t|]; [|exact I].
  destruct (lenN bs <? hs) eqn:E; [apply bounded_box_rej|]. bools.
  destruct (alloc_table_bounded t false hs hl (firstn (N.to_nat (hs - hl)) (skipn (N.to_nat hl) bs)) ltac:(lia)) as (o & -> & Ha & Hi).
  pose proof (lenN_firstn (N.to_nat (hs - hl)) (skipn (N.to_nat hl) bs)). pose proof (lenN_skipn (N.to_nat hl) bs).
  exists o. split; [reflexivity|]. lia.
Qed.

End Prologues.
