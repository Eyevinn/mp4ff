(* C04TreeProofs.v — the container theorems with a leaf contract that admits the modelled table-box
   decoders (C04TreeModel.v):  a leaf may cost LA * (bytes it consumed) + LC when it returns a box and
   LA * (bytes remaining) + LC when it returns an error (the error ends the whole decode).  It is an instance
   of the parametric contract of C04ContainerProofs, whose loop theorems give the bounds; every leaf decoder
   under the contract cost <= consumed + 1 satisfies it. *)
From V.lib Require Import Base.
From V.c04 Require Import C04Model C04ReaderProofs C04ContainerProofs C04AllocModel C04AllocProofs C04TreeModel.
Open Scope Z_scope.

Section Tables.
Ltac Zify.zify_convert_to_euclidean_division_equations_flag ::= constr:(false).   (* no goal in this section is about a quotient *)

Definition LA : Z := 6.
Definition LC : Z := 20700.
Definition BIG : Z := 34359738360. (* 32 GiB - 16: excludes the one box size at which ctts wraps its count *)

Definition pre_sr (h : hdr) (s : sst) : Prop :=
  hdr_wf h /\ rerr (sr s) = false /\ rlen (sr s) < BIG /\
  (eqb_name (hname h) name_mdat = true \/ Z.of_N (hsize h) <= rem s + Z.of_N (hlen h)).

Record leaf_ok2 (ld : leafdec) : Prop := mkLeafOk2 {
  leaf2_sr : forall h s, Inv (sr s) -> pre_sr h s ->
    exists r s', ld_sr ld h s = (r, s') /\ np r /\ Inv (sr s') /\ rbuf (sr s') = rbuf (sr s) /\
      rpos (sr s) <= rpos (sr s') /\
      T (scost s') <= T (scost s) + LA * rem s + LC /\
      (forall sz, r = Ok sz -> T (scost s') <= T (scost s) + LA * (rpos (sr s') - rpos (sr s)) + LC);
  leaf2_r : forall h s, (ipos s <= lenN (ibuf s))%N -> hdr_wf h -> Z.of_N (lenN (ibuf s)) < BIG ->
    exists r s', ld_r ld h s = (r, s') /\ np r /\ ibuf s' = ibuf s /\
      (ipos s <= ipos s' <= lenN (ibuf s))%N /\
      T (icost s') <= T (icost s) + LA * (Z.of_N (ipos s') - Z.of_N (ipos s)) + LC }.

(* ---------------------------------------------------------------- the table leaves *)
Lemma T_charge o c : T (charge o c) = T c + Z.of_N (o_alloc o) + Z.of_N (o_iters o).
Proof. unfold charge. rewrite T_tick, T_alloc. lia. Qed.

Lemma leaf_reads_ge t h : hdr_wf h -> Z.of_N (hs64 h) - 16 <= leaf_reads t h /\ 0 <= leaf_reads t h.
Proof.
  intros W. assert (Hl : Z.of_N (hlen h) <= 16) by (destruct W as [W|W]; rewrite W; lia).
  assert (E : leaf_reads t h = Z.max 0 (Z.of_N (hs64 h) - Z.of_N (hlen h)) \/ leaf_reads t h = Z.max 0 (Z.of_N (hs64 h) - 8))
    by (destruct t; auto).
  destruct E as [-> | ->]; lia.
Qed.

Lemma tbl_sr_ok t h s : guarded t = true -> Inv (sr s) -> hdr_wf h -> rlen (sr s) < BIG ->
  Z.of_N (hsize h) <= rem s + Z.of_N (hlen h) ->
  exists r s', tbl_sr t h s = (r, s') /\ np r /\ Inv (sr s') /\ rbuf (sr s') = rbuf (sr s) /\
    rpos (sr s) <= rpos (sr s') /\
    T (scost s') <= T (scost s) + LA * rem s + LC /\
    (forall sz, r = Ok sz -> T (scost s') <= T (scost s) + LA * (rpos (sr s') - rpos (sr s)) + LC).
Proof.
  intros G HI W HB HS. unfold tbl_sr.
  assert (Hl : Z.of_N (hlen h) <= 16) by (destruct W as [W|W]; rewrite W; lia).
  assert (Hs64 : hs64 h = hsize h).
  { unfold hs64. apply N.mod_small. unfold rem, BIG, Inv in *. lia. }
  destruct (leaf_reads_ge t h W) as [R1 R2]. rewrite Hs64 in *.
  assert (Hn : hsize h <> 34359738376%N) by (unfold rem, BIG, Inv in *; lia).
  destruct (guarded_bounded t true (hsize h) (hlen h) (skipn (Z.to_nat (rpos (sr s))) (rbuf (sr s))) G Hn)
    as (o & -> & Ha & Hi).
  destruct (o_ok o); ret; cbn [np sr scost rbuf rpos rerr]; rewrite T_charge;
    unfold rem, Inv, rlen, LA, LC in *; cbn [rbuf rpos]; repeat split; try lia; intros; (discriminate || lia).
Qed.

Lemma tbl_r_ok t h s : guarded t = true -> (ipos s <= lenN (ibuf s))%N -> hdr_wf h -> Z.of_N (lenN (ibuf s)) < BIG ->
  exists r s', tbl_r t h s = (r, s') /\ np r /\ ibuf s' = ibuf s /\
    (ipos s <= ipos s' <= lenN (ibuf s))%N /\
    T (icost s') <= T (icost s) + LA * (Z.of_N (ipos s') - Z.of_N (ipos s)) + LC.
Proof.
  intros G HI W HB. unfold tbl_r.
  destruct (read_box_body_spec h s HI) as (r & s1 & -> & NP & B1 & P1 & C1 & Hr).
  destruct r as [body| | |]; try contradiction; [|ret; unfold LA, LC; repeat split; try assumption; lia].
  destruct (Hr body eq_refl) as [Lb Hs]. specialize (Hs W). fold (hs64 h) in Hs.
  assert (Hl : (hlen h <= 16)%N) by (destruct W as [W|W]; rewrite W; lia).
  destruct (guarded_bounded t false (hs64 h) (hlen h) body G ltac:(unfold BIG in *; lia)) as (o & -> & Ha & Hi).
  destruct (o_ok o); ret; cbn [np icharge ibuf ipos icost]; rewrite T_charge; unfold LA, LC;
    repeat split; try assumption; lia.
Qed.

Lemma eqb_name_true a b : eqb_name a b = true -> a = b.
Proof.
  revert b. induction a as [|x a IH]; intros [|y b] H; try discriminate; [reflexivity|].
  cbn [eqb_name] in H. apply andb_true_iff in H. destruct H as [H1 H2].
  apply N.eqb_eq in H1. subst. f_equal. apply IH. exact H2.
Qed.

Lemma tbl_of_not_mdat nm t : tbl_of nm = Some t -> eqb_name nm name_mdat = false.
Proof.
  intros H. destruct (eqb_name nm name_mdat) eqn:E; [|reflexivity].
  apply eqb_name_true in E. subst. vm_compute in H. discriminate.
Qed.

Lemma tbl_of_guarded nm t : tbl_of nm = Some t -> guarded t = true.
Proof.
  unfold tbl_of. destruct (tbox_of nm) as [t'|]; [|discriminate].
  destruct (guarded t') eqn:G; [|discriminate]. intros H. inversion H; subst. exact G.
Qed.

(* every leaf decoder under leaf_ok, extended with the table leaves, satisfies leaf_ok2 *)
Theorem mix_leaves_ok2 : forall other, leaf_ok other -> leaf_ok2 (mix_leaves other).
Proof.
  intros other LD. constructor.
  - intros h s HI (W & Er & HB & HS). cbn [ld_sr mix_leaves].
    destruct (tbl_of (hname h)) as [t|] eqn:Et.
    + pose proof (tbl_of_not_mdat _ _ Et) as Nm. destruct HS as [HS|HS]; [congruence|].
      apply tbl_sr_ok; auto. eapply tbl_of_guarded; eauto.
    + destruct (leaf_sr_ok other LD h s HI) as [r [s' [E [NP [I1 [B1 [P1 C1]]]]]]].
      exists r, s'. split; [exact E|]. split; [exact NP|]. split; [exact I1|]. split; [exact B1|]. split; [exact P1|].
      assert (rpos (sr s') <= rlen (sr s)) by (unfold Inv, rlen in *; rewrite B1 in I1; lia).
      unfold rem, LA, LC. split; [lia|]. intros; lia.
  - intros h s HI W HB. cbn [ld_r mix_leaves].
    destruct (tbl_of (hname h)) as [t|] eqn:Et.
    + apply tbl_r_ok; auto. eapply tbl_of_guarded; eauto.
    + destruct (leaf_r_ok other LD h s HI) as [r [s' [E [NP [B1 [P1 C1]]]]]].
      exists r, s'. split; [exact E|]. split; [exact NP|]. split; [exact B1|]. split; [exact P1|].
      unfold LA, LC. lia.
Qed.

(* ---------------------------------------------------------------- the loops *)
(* LA per byte consumed or left, LC for a box or an error *)
Lemma leaf_ok2_cost ld : leaf_ok2 ld -> leaf_cost BIG LA LA LC LC ld.
Proof.
  intros L. constructor.
  - intros h s HI HP. destruct (leaf2_sr ld L h s HI HP) as (r & s' & E & NP & I1 & B1 & P1 & C1 & D1).
    exists r, s'. repeat (split; [assumption|]). split; [|exact D1].
    unfold rem, rlen, LA in *. rewrite B1. lia.
  - intros h s HI W HB. unfold IInv, ip, il in *.
    destruct (leaf2_r ld L h s ltac:(lia) W HB) as (r & s' & E & NP & B1 & P1 & C1).
    exists r, s'. repeat (split; [assumption || lia|]). intros _ _. lia.
Qed.

(* ---------------------------------------------------------------- top-level statements *)
Definition small32 (bs : list N) : bool := zlen bs <? BIG.

(* a leaf box of 8 bytes may cost LC: 2600 per byte pays for it *)
Lemma LA_le : 0 <= LA <= 2600. Proof. unfold LA. lia. Qed.
Lemma LC_le : 0 <= LC /\ LC + 3 <= 8 * 2600 /\ LC + 19 <= 8 * 2601. Proof. unfold LC. lia. Qed.
Lemma BIG_le : BIG <= two63. Proof. unfold BIG, two63. lia. Qed.

Theorem tree_total_sr : forall ld, leaf_ok2 ld -> forall bs, small32 bs = true ->
  exists r s', box_sr ld bs = (r, s') /\ (r = Err \/ exists t, r = Ok t) /\
               (tot (scost s') <= 2600 * lenN bs + 20740)%N.
Proof.
  intros ld LD bs Hs. unfold small32 in Hs.
  destruct (box_sr_cost BIG LA LA LC LC 2600 ld (leaf_ok2_cost ld LD) LA_le LA_le ltac:(apply LC_le) ltac:(lia) ltac:(apply LC_le) BIG_le bs ltac:(lia))
    as (r & s' & E & R & C).
  exists r, s'. split; [exact E|]. split; [exact R|]. unfold T, zlen, lenN, LC in *. lia.
Qed.

Theorem tree_total_r : forall ld, leaf_ok2 ld -> forall bs, small32 bs = true ->
  exists r s', box_r ld bs = (r, s') /\ (r = Err \/ r = Ok BEof \/ exists t, r = Ok (BBox t)) /\
               (tot (icost s') <= 2601 * lenN bs + 20771)%N.
Proof.
  intros ld LD bs Hs. unfold small32 in Hs.
  destruct (box_r_cost BIG LA LA LC LC 2600 2601 ld (leaf_ok2_cost ld LD) LA_le LA_le ltac:(apply LC_le) ltac:(lia) ltac:(apply LC_le)
              ltac:(lia) ltac:(lia) ltac:(apply LC_le) BIG_le bs ltac:(lia)) as (r & s' & E & R & C).
  exists r, s'. split; [exact E|]. split; [exact R|]. unfold T, zlen, lenN, LC in *. lia.
Qed.

(* the property's allocation clause over trees: every byte string below 32 GiB, any leaf decoder under leaf_ok
   for the types that are not table boxes *)
Theorem tree_alloc : forall other, leaf_ok other -> forall bs, small32 bs = true ->
  (exists r s', box_sr (mix_leaves other) bs = (r, s') /\ (r = Err \/ exists t, r = Ok t) /\
                (alloc (scost s') <= 2600 * lenN bs + 20740)%N /\ (ticks (scost s') <= 2600 * lenN bs + 20740)%N) /\
  (exists r s', box_r (mix_leaves other) bs = (r, s') /\ (r = Err \/ r = Ok BEof \/ exists t, r = Ok (BBox t)) /\
                (alloc (icost s') <= 2601 * lenN bs + 20771)%N /\ (ticks (icost s') <= 2601 * lenN bs + 20771)%N).
Proof.
  intros other LD bs Hs. pose proof (mix_leaves_ok2 other LD) as L2. split.
  - destruct (tree_total_sr _ L2 bs Hs) as [r [s' [E [R C]]]]. exists r, s'. unfold tot in C. repeat split; auto; lia.
  - destruct (tree_total_r _ L2 bs Hs) as [r [s' [E [R C]]]]. exists r, s'. unfold tot in C. repeat split; auto; lia.
Qed.

End Tables.
