(* C04AsmProofs.v — the file-assembly state machine, File.Encode(SW) and File.Info never panic on the
   REPAIRED text (g = true), for every list of top-level box shapes and every decode option;
   refutations for the pinned text (g = false). *)
From V.lib Require Import Base.
From V.c04 Require Import C04AsmModel.
Open Scope N_scope.

Definition no_panic {A} (r : res A) : Prop :=
  match r with Panic => False | OutOfFuel => False | _ => True end.

Lemma no_panic_bind {A B} (r : res A) (k : A -> res B) :
  no_panic r -> (forall a, r = Ok a -> no_panic (k a)) -> no_panic (rbind r k).
Proof. destruct r; cbn; auto. Qed.

(* the last segment exists and has a fragment *)
Definition seg_ok (f : fstate) : bool :=
  match f_segs f with
  | sg :: _ => match sg_frags sg with _ :: _ => true | [] => false end
  | [] => false
  end.

Definition is_nil_ftyp (c : initchild) : bool := match c with ICNilFtyp => true | _ => false end.
Definition init_ok (f : fstate) : bool :=
  match f_init f with Some l => negb (existsb is_nil_ftyp l) | None => true end.

Lemma seg_start_raw_ok o f pos : exists b, seg_start_raw true o f pos = Ok b.
Proof.
  unfold seg_start_raw. destruct (f_sidxs f); [|eauto].
  destruct (f_tfra f) as [entries|].
  - destruct (nth_error entries (N.to_nat (lenN (f_segs f)))); eauto.
  - destruct (o_start_on_moof o); [|eauto]. destruct (f_segs f); eauto.
Qed.

Lemma ssin_ok o f pos :
  exists f', start_segment_if_needed true o f pos = Ok f' /\ f_segs f' <> [] /\ f_init f' = f_init f.
Proof.
  unfold start_segment_if_needed. destruct (seg_start_raw_ok o f pos) as [b Hb]. rewrite Hb. cbn [rbind].
  destruct (f_segs f) eqn:E.
  - rewrite orb_true_r. eexists. split; [reflexivity|]. cbn. split; [discriminate|reflexivity].
  - rewrite orb_false_r. destruct b.
    + eexists. split; [reflexivity|]. cbn. split; [discriminate|reflexivity].
    + eexists. split; [reflexivity|]. rewrite E. split; [discriminate|reflexivity].
Qed.

Lemma add_child_ok o f t size pos :
  init_ok f = true ->
  (match t with TMdat _ => f_frag f = true -> seg_ok f = true | _ => True end) ->
  exists f', add_child true o f t size pos = Ok f' /\ init_ok f' = true /\
             (is_moof (btype_of t) = true -> seg_ok f' = true).
Proof.
  intros HJ Hm. unfold add_child. destruct t; cbn [btype_of is_moof].
  - eexists. split; [reflexivity|]. cbn. split; [exact HJ|discriminate].
  - destruct m as [depth n]. cbn [moov_stts]. destruct (depth <? 5)%nat; cbn [rbind].
    + eexists. split; [reflexivity|]. split; [exact HJ|discriminate].
    + destruct n; cbn [rbind].
      * eexists. split; [reflexivity|]. split; [|discriminate].
        unfold init_ok, push_child. cbn. destruct (f_ftyp f); reflexivity.
      * eexists. split; [reflexivity|]. split; [exact HJ|discriminate].
  - eexists. split; [reflexivity|]. split; [exact HJ|discriminate].
  - destruct (f_segs f); cbn [rbind]; eexists; (split; [reflexivity|]); (split; [exact HJ|discriminate]).
  - destruct (ssin_ok o f pos) as [f' [H1 [H2 H3]]]. rewrite H1. cbn [rbind].
    destruct (f_segs f') as [|sg rest] eqn:E; [contradiction|].
    destruct (sg_frags sg); cbn [rbind]; eexists; (split; [reflexivity|]);
      (split; [unfold init_ok in *; cbn; rewrite H3; exact HJ|discriminate]).
  - destruct (ssin_ok o (set_segs f (f_segs f) true) pos) as [f' [H1 [H2 H3]]]. rewrite H1. cbn [rbind].
    destruct (f_segs f') as [|sg rest] eqn:E; [contradiction|].
    assert (HJ' : init_ok f' = true) by (unfold init_ok in *; rewrite H3; exact HJ).
    destruct (sg_frags sg) as [|fr frs]; cbn [rbind].
    + eexists. split; [reflexivity|]. split; [exact HJ'|reflexivity].
    + destruct (fr_moof fr); cbn [rbind]; eexists; (split; [reflexivity|]); (split; [exact HJ'|reflexivity]).
  - destruct (f_frag f) eqn:Efr; cbn [negb].
    + specialize (Hm eq_refl). unfold seg_ok in Hm.
      destruct (f_segs f) as [|sg rest]; [discriminate|].
      destruct (sg_frags sg); [discriminate|]. cbn [rbind].
      eexists. split; [reflexivity|]. split; [exact HJ|discriminate].
    + destruct (f_mdat f) as [[|p]|]; cbn [rbind]; eexists; (split; [reflexivity|]); (split; [exact HJ|discriminate]).
  - eexists. split; [reflexivity|]. split; [exact HJ|discriminate].
  - eexists. split; [reflexivity|]. split; [exact HJ|discriminate].
Qed.

Lemma parse_read_senc_np tr pok : no_panic (parse_read_senc true tr pok).
Proof. unfold parse_read_senc. destruct (t_saio tr) as [[| |]|]; cbn; destruct pok; exact I. Qed.

Lemma moof_senc_pass_np f trafs : no_panic (moof_senc_pass true f trafs).
Proof.
  induction trafs as [|tr rest IH]; [exact I|]. cbn [moof_senc_pass].
  apply no_panic_bind; [|intros; exact IH].
  destruct (t_senc tr) as [[|pok]|]; try exact I.
  destruct (f_moov f); [destruct (t_tfhd tr); exact I|apply parse_read_senc_np].
Qed.

Definition res_post {A} (P : A -> Prop) (r : res A) : Prop :=
  match r with Ok a => P a | Err => True | Panic => False | OutOfFuel => False end.

Lemma decode_loop_ok o : forall boxes f last pos,
  init_ok f = true -> (is_moof last = true -> seg_ok f = true) ->
  res_post (fun f' => init_ok f' = true) (decode_loop true o f last pos boxes).
Proof.
  induction boxes as [|[t size] rest IH]; intros f last pos HJ HI; [exact HJ|].
  cbn [decode_loop].
  set (pre := match t with TMoov m => _ | TMdat p => _ | TMoof trafs => _ | _ => Ok tt end).
  assert (Hpre : no_panic pre).
  { subst pre. destruct t; try exact I.
    - cbn [andb]. destruct (negb (moov_complete m)); exact I.
    - apply moof_senc_pass_np.
    - destruct (f_frag f); [destruct (is_moof last); exact I|].
      destruct (f_mdat f); [|exact I]. destruct ((0 <? n) && (0 <? payload)); exact I. }
  destruct pre as [[]| | |] eqn:Epre; cbn [rbind res_post]; try exact I; try contradiction.
  destruct (add_child_ok o f t size pos HJ) as [f' [H1 [H2 H3]]].
  { destruct t; try exact I. intros Hfr. apply HI.
    subst pre. rewrite Hfr in Epre. destruct (is_moof last); [reflexivity|discriminate]. }
  rewrite H1. cbn [rbind]. apply IH; assumption.
Qed.

Lemma find_mfra_np boxes : no_panic (find_and_read_mfra true boxes).
Proof.
  unfold find_and_read_mfra. destruct (sumN (map snd boxes) <? 16); [exact I|].
  destruct (rev boxes) as [|[t sz] r]; [exact I|]. destruct t; try exact I.
  destruct tfras as [|first rest]; [exact I|]. destruct (tfras_consistent first rest); exact I.
Qed.

(* DecodeFile / DecodeFileSR around the loop, whatever finds the mfra and whatever list the loop runs over *)
Lemma assemble_with_ok o (find : res (option (list N))) tops : no_panic find ->
  res_post (fun f => init_ok f = true)
    (if o_sr o then
       if o_lazy o then Err else decode_loop true (mkO true false false (o_start_on_moof o)) f0 BNone 0 tops
     else
       do tf <- (if o_ism o then find else Ok None);
       do f <- decode_loop true o (mkF false None None None [] tf false [] [] false) BNone 0 tops;
       Ok (mkF (f_ftyp f) (f_moov f) (f_mdat f) (f_init f) (f_sidxs f) None (f_mfra f) (f_segs f) (f_children f) (f_frag f))).
Proof.
  intros H. destruct (o_sr o).
  - destruct (o_lazy o); [exact I|]. apply decode_loop_ok; [reflexivity|discriminate].
  - destruct (if o_ism o then find else Ok None) as [tf| | |] eqn:E;
      cbn [rbind res_post]; try exact I;
      try (destruct (o_ism o); [rewrite E in H; exact H|discriminate]).
    pose proof (decode_loop_ok o tops (mkF false None None None [] tf false [] [] false) BNone 0 eq_refl
                  ltac:(discriminate)) as HL.
    destruct (decode_loop true o _ BNone 0 tops); cbn [rbind res_post] in *; auto.
Qed.

Theorem assemble_ok : forall o boxes,
  res_post (fun f => init_ok f = true) (assemble true o boxes).
Proof. intros o boxes. exact (assemble_with_ok o _ boxes (find_mfra_np boxes)). Qed.

(* ---- encoders and Info *)
Lemma encode_all_np {A} (enc : A -> res unit) l : (forall x, no_panic (enc x)) -> no_panic (encode_all enc l).
Proof.
  intros H. induction l as [|x r IH]; [exact I|]. cbn [encode_all].
  apply no_panic_bind; [apply H|intros; exact IH].
Qed.

Lemma encode_moof_np b trafs : no_panic (encode_moof true b trafs).
Proof. unfold encode_moof. destruct (negb b && has_zero_trun trafs); exact I. Qed.

Lemma encode_fragment_np fr : no_panic (encode_fragment true fr).
Proof.
  unfold encode_fragment. destruct (fr_moof fr); [|exact I]. destruct (negb (fr_mdat fr)); [exact I|].
  apply encode_all_np. intros [| |]; try exact I. apply encode_moof_np.
Qed.

Lemma encode_init_np l : existsb is_nil_ftyp l = false -> no_panic (encode_init l).
Proof.
  induction l as [|c r IH]; intros H; [exact I|]. cbn [existsb] in H. apply orb_false_elim in H.
  destruct H as [H1 H2]. unfold encode_init in *. cbn [encode_all].
  apply no_panic_bind; [destruct c; try exact I; discriminate|intros; apply IH; exact H2].
Qed.

Theorem encode_file_np : forall f bt, init_ok f = true -> no_panic (encode_file true bt f).
Proof.
  intros f bt HJ. unfold encode_file. destruct (f_frag f && negb bt).
  - apply no_panic_bind.
    + unfold init_ok in HJ. destruct (f_init f); [|exact I]. apply encode_init_np.
      destruct (existsb is_nil_ftyp l); [discriminate|reflexivity].
    + intros _ _. apply encode_all_np. intros sg. unfold encode_segment.
      apply encode_all_np. apply encode_fragment_np.
  - apply encode_all_np. intros [| | | | | | | |]; try exact I. apply encode_moof_np.
Qed.

Theorem info_file_np : forall f, no_panic (info_file true f).
Proof.
  intros f. unfold info_file. apply encode_all_np. intros [| | | | | | | |]; try exact I.
  cbn [info_top]. apply encode_all_np. intros tr. unfold info_traf.
  destruct (t_saio tr) as [[| |]|]; exact I.
Qed.

(* a file with a well-formed init prints and encodes in both modes *)
Lemma total_of_ok (r : res fstate) : res_post (fun f => init_ok f = true) r ->
  match r with
  | Ok f => no_panic (info_file true f) /\ no_panic (encode_file true false f) /\ no_panic (encode_file true true f)
  | Err => True
  | Panic => False
  | OutOfFuel => False
  end.
Proof.
  destruct r; cbn [res_post]; auto. intros H.
  split; [apply info_file_np|split; apply encode_file_np; exact H].
Qed.

(* the full statement: decode under any options, then Info and both encode modes *)
Theorem assembly_total : forall (o : opts) (boxes : list (topshape * N)),
  match assemble true o boxes with
  | Ok f => no_panic (info_file true f) /\ no_panic (encode_file true false f) /\ no_panic (encode_file true true f)
  | Err => True
  | Panic => False
  | OutOfFuel => False
  end.
Proof. intros o boxes. apply total_of_ok, assemble_ok. Qed.

(* ---- the pinned text (g = false) is refuted, site by site *)
Definition oR : opts := mkO false false false false.
Definition oISM : opts := mkO false false true false.
Definition full_traf : trafshape := mkTraf true None None [TrunOffset].

Theorem assembly_refuted_moov_without_trak :
  assemble false oR [(TMoov (MoovChain 0 0), 116)] = Panic.
Proof. vm_compute. reflexivity. Qed.

Theorem assembly_refuted_traf_without_tfhd :
  assemble false oR [(TFtyp, 32); (TMoov (MoovChain 5 0), 554);
                     (TMoof [mkTraf false (Some (SencUnparsed true)) None []], 56)] = Panic.
Proof. vm_compute. reflexivity. Qed.

Theorem assembly_refuted_saio_without_offsets :
  assemble false oR [(TMoof [mkTraf true (Some (SencUnparsed true)) (Some SaioEmpty) []], 88)] = Panic.
Proof. vm_compute. reflexivity. Qed.

Theorem assembly_refuted_no_segment_after_sidx :
  assemble false oR [(TSidx (mkSidx 1 [(false, 100)]), 44); (TMoof [full_traf], 68)] = Panic /\
  assemble false oR [(TSidx (mkSidx 1 [(false, 100)]), 44); (TEmsg, 40)] = Panic.
Proof. split; vm_compute; reflexivity. Qed.

Theorem assembly_refuted_tfra_entries :
  assemble false oISM [(TMoof [], 24); (TMdat 4, 12); (TMoof [], 24); (TMdat 4, 12); (TMfra [(1, [0])], 67)] = Panic.
Proof. vm_compute. reflexivity. Qed.

Theorem assembly_refuted_mfra_without_tfra :
  assemble false oISM [(TOther, 8); (TMfra [], 24)] = Panic.
Proof. vm_compute. reflexivity. Qed.

Theorem encode_refuted_nil_ftyp : exists f,
  assemble false oR [(TMoov (MoovChain 5 0), 554)] = Ok f /\ encode_file false false f = Panic.
Proof. eexists. split; vm_compute; reflexivity. Qed.

Theorem encode_refuted_moof_without_traf : exists f,
  assemble false oR [(TMoof [], 24); (TMdat 4, 12)] = Ok f /\
  encode_file false false f = Panic /\ encode_file false true f = Panic.
Proof. eexists. split; [vm_compute; reflexivity|split; vm_compute; reflexivity]. Qed.

Theorem encode_refuted_second_traf_zero_offset : exists f,
  assemble false oR [(TMoof [full_traf; mkTraf true None None [TrunZeroOffset]], 100); (TMdat 4, 12)] = Ok f /\
  encode_file false true f = Panic.
Proof. eexists. split; vm_compute; reflexivity. Qed.

Theorem info_refuted_saio_without_offsets : exists f,
  assemble false oR [(TMoof [mkTraf true None (Some SaioEmpty) []], 64)] = Ok f /\ info_file false f = Panic.
Proof. eexists. split; vm_compute; reflexivity. Qed.

(* the same witnesses are accepted (Ok or Err, never Panic) by the repaired text: instances of assembly_total *)
Example repaired_moov_without_trak : assemble true oR [(TMoov (MoovChain 0 0), 116)] = Err.
Proof. vm_compute. reflexivity. Qed.
