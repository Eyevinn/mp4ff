(* C11SyncDecProofs.v — "every produced segment starts with a sync sample of the reference track" at the DECODED
   level for the segmenter's in-memory writer: the plan-level statement (C11SyncProofs.video_starts_sync: every
   interval of the reference track starts at a sample number listed in stss) is composed with the per-segment form
   of the write / read-back pipeline (C11PipeProofs) and with the flag translation of the expansion
   (C09Spec.S_flags: a sample listed in stss gets sample_is_non_sync = 0, whatever sdtp says). *)
From V.lib Require Import Base.
From V.c11 Require Import C11Model C11SegProofs C11SyncProofs.
From V.c09 Require Import C09Model C09Spec.
From V.c05 Require Import C05Model C05FragModel C05HistProofs C05RoundProofs.
From V.c11 Require Import C11FetchModel C11Spec C11PipeProofs C11TotalProofs.

(* bit 16 of the 32-bit sample flags is sample_is_non_sync_sample (mp4.SampleFlags.Encode / DecodeSampleFlags) *)
Definition starts_sync (o : list fullsample) : Prop :=
  match o with [] => False | x :: _ => N.testbit (s_flags (fs_s x)) 16 = false end.

Lemma flags_encode_sync a b c d : N.testbit (flags_encode a b c d false) 16 = false.
Proof.
  unfold flags_encode. rewrite !N.lor_spec.
  rewrite !N.shiftl_spec_low by lia. reflexivity.
Qed.

Lemma existsb_eqb_in n l : In n l -> existsb (N.eqb n) l = true.
Proof. intros H. apply existsb_exists. exists n. split; [exact H|apply N.eqb_refl]. Qed.

Lemma S_full_sync_flag f tb n x l : S_full f tb n = Some x -> C09Model.t_stss tb = Some l -> In n l ->
  N.testbit (s_flags (fs_s x)) 16 = false.
Proof.
  unfold S_full, S_meta. intros Hx Hl Hin.
  destruct (S_flags tb n) as [fl|] eqn:Ef; [|discriminate].
  destruct (S_dur tb n); [|discriminate]. destruct (S_size tb n); [|discriminate].
  destruct (match C09Model.t_ctts tb with Some c => S_cto c n | None => Some 0%Z end); [|discriminate].
  destruct (S_decode_time tb n); [|discriminate]. destruct (S_bytes f tb n); [|discriminate].
  injection Hx as <-. cbn [fs_s meta_sample s_flags C09Model.s_flags].
  unfold S_flags in Ef. rewrite Hl in Ef. unfold S_is_sync in Ef. rewrite (existsb_eqb_in n l Hin) in Ef.
  destruct (C09Model.t_sdtp tb) as [sd|].
  - destruct (n =? 0); [discriminate|]. destruct (nthN sd (n - 1)); [|discriminate].
    injection Ef as <-. apply flags_encode_sync.
  - injection Ef as <-. apply flags_encode_sync.
Qed.

(* ------------------------------------------------------------------ the pieces of the reference track *)
Lemma pieces_start_sync f tb ivs ls stss : C09Model.t_stss tb = Some stss ->
  Forall (fun iv => In (fst iv) stss) ivs -> Forall2 (reads_as f tb) ivs ls ->
  Forall starts_sync (nonempty_pieces ls).
Proof.
  intros Hst Hin Hls. induction Hls as [|[a b] l ivs ls Hl _ IH]; [constructor|].
  pose proof (Forall_inv Hin) as Ha. apply Forall_inv_tail in Hin. cbn [fst] in Ha.
  destruct l as [|x l']; cbn [nonempty_pieces filter]; [exact (IH Hin)|]. constructor; [|exact (IH Hin)].
  unfold reads_as in Hl. rewrite range_seqN in Hl. destruct (N.to_nat (b + 1 - a)); [discriminate|].
  cbn [seqN map] in Hl. injection Hl as Hx _.
  exact (S_full_sync_flag f tb a x stss (eq_sym Hx) Hst Ha).
Qed.

Lemma ref_plan (trs : list itrack) (t : itrack) d syncTs sps ivs stss :
  Forall (fun t => C09Spec.consistent (snd t) = true) trs -> In t trs ->
  first_video (map itrack_of trs) = Some (itrack_of t) ->
  C09Model.t_stss (snd t) = Some stss -> In 1 stss ->
  get_segment_starts (map itrack_of trs) d = Ok (syncTs, sps) -> sps <> [] ->
  get_segment_intervals syncTs sps (itrack_of t) = Ok ivs ->
  nonzero_dur_syncs (itrack_of t) sps = true ->
  tiles 1 ivs (nsamples (snd t)) /\ Forall (fun iv => In (fst iv) stss) ivs.
Proof.
  intros Hall Hin Hfv Hst H1 Hs Hne Hi Hg. rewrite Forall_forall in Hall.
  assert (Hwf : wf_tracks (map itrack_of trs) = true).
  { unfold wf_tracks. rewrite forallb_forall. intros x Hx. apply in_map_iff in Hx.
    destruct Hx as [t' [<- Ht']]. exact (proj1 (itrack_wf t' (Hall t' Ht'))). }
  destruct (itrack_wf t (Hall t Hin)) as [Hw [Hsm Hn]].
  unfold wf_track in Hw. apply andb_true_iff in Hw. destruct Hw as [Hw _]. split.
  - rewrite <- Hn. apply (intervals_tiles syncTs sps (itrack_of t) ivs Hne (starts_sorted _ _ _ _ Hwf Hs)); [lia|lia|exact Hi].
  - assert (Hstss : C11Model.t_stss (itrack_of t) = Some stss) by (destruct t as [[v ts] tb]; exact Hst).
    exact (proj2 (proj2 (video_starts_sync _ _ _ _ _ _ _ Hfv Hstss Hs Hi Hg)) H1).
Qed.

Lemma ref_segments_start_sync (f : pfile) (trs : list itrack) (t : itrack) d syncTs sps ivs stss :
  Forall (fun t => C09Spec.consistent (snd t) = true) trs -> In t trs -> data_ok f (snd t) = true ->
  first_video (map itrack_of trs) = Some (itrack_of t) ->
  C09Model.t_stss (snd t) = Some stss -> In 1 stss ->
  get_segment_starts (map itrack_of trs) d = Ok (syncTs, sps) -> sps <> [] ->
  get_segment_intervals syncTs sps (itrack_of t) = Ok ivs ->
  nonzero_dur_syncs (itrack_of t) sps = true ->
  forall opt T pos0 (tx : C05Model.trex),
  tx_track tx = T -> pos0 < 4611686018427387904 -> forallb (seg_small (snd t)) ivs = true ->
  exists fes outs, seg_track opt f (snd t) T ivs = Ok fes /\
                   read_all (read_back tx pos0 []) fes = Ok outs /\
                   map Some (concat outs) = expansion f (snd t) /\
                   Forall starts_sync outs.
Proof.
  intros Hall Hin Hd Hfv Hst H1 Hs Hne Hi Hg opt T pos0 tx Htx Hpos Hsmall.
  destruct (ref_plan trs t d syncTs sps ivs stss Hall Hin Hfv Hst H1 Hs Hne Hi Hg) as [Ht Hsync].
  assert (Hc : C09Spec.consistent (snd t) = true) by (rewrite Forall_forall in Hall; exact (Hall t Hin)).
  pose proof (tiles_seqN1 _ _ Ht) as Htile. pose proof (tile_all_in _ _ Htile) as Hins.
  destruct (seg_track_total opt f (snd t) T pos0 Hc Hd Hpos ivs Hins (tiles_ordered _ _ _ Ht) Hsmall) as [fes [Hw Hgd]].
  destruct (seg_track_pieces opt f (snd t) T pos0 tx Hc Hd Htx ivs fes Hins Hw Hgd) as (ls & Hls & Hr).
  destruct (pieces_end_to_end f (snd t) ivs ls _ fes Htile Hls Hr) as (outs & Hr' & He & _).
  exists fes, outs. repeat split; try assumption.
  rewrite Hr in Hr'. injection Hr' as <-. exact (pieces_start_sync f (snd t) ivs ls stss Hst Hsync Hls).
Qed.
