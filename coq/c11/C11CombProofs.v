(* C11CombProofs.v — combine-segs end to end at the decoded level: under the guard "no trun relies on trex
   defaults" GetFullSamples(nil) reads what GetFullSamples(trex of the input's init) reads; what it reads has
   Size = len(Data) and decode times consistent with the durations (C05's round-trip hypotheses are PROVED of every
   decoded input); the loop of combineMediaSegments is the multi-track history of C11MuxProofs; Encode succeeds
   (write_mux_encode) and every track reads back its input (write_read_mux = C05_roundtrip). *)
From V.lib Require Import Base.
From V.c11 Require Import C11Model C11SegProofs.
From V.c09 Require Import C09Model C09Spec C09BaseProofs.
From V.c05 Require Import C05Model C05FragModel C05HistProofs C05ReadProofs C05RoundProofs.
From V.c11 Require Import C11FetchModel C11FetchProofs C11FragProofs C11MuxProofs C11MuxTotalProofs C11CombModel.

Lemma resolve_sample_indep r dd ds df dd' ds' df' first s :
  (has_dur r = true \/ dd = dd') -> (has_size r = true \/ ds = ds') ->
  (has_sflags r = true \/ df = df' \/ (has_fsf r = true /\ first = true)) ->
  resolve_sample r (dd, ds, df) first s = resolve_sample r (dd', ds', df') first s.
Proof.
  intros Hd Hz Hf. unfold resolve_sample. f_equal.
  - destruct (has_sflags r); [reflexivity|]. destruct Hf as [Hf|[->|[-> ->]]]; [discriminate|reflexivity|reflexivity].
  - destruct (has_dur r); [reflexivity|]. destruct Hd as [Hd| ->]; [discriminate|reflexivity].
  - destruct (has_size r); [reflexivity|]. destruct Hz as [Hz| ->]; [discriminate|reflexivity].
Qed.

Lemma trun_indep_resolve h r tx : trun_indep h r = true -> resolve h (Some tx) r = resolve h None r.
Proof.
  unfold trun_indep, resolve. destruct (tr_samples r) as [|s0 rest] eqn:Es; [reflexivity|].
  intros H. apply andb_prop in H. destruct H as [H Hf]. apply andb_prop in H. destruct H as [Hd Hz].
  unfold defaults.
  assert (Ed : has_dur r = true \/ (if tf_has_ddur h then tf_ddur h else tx_ddur tx) = (if tf_has_ddur h then tf_ddur h else 0)).
  { apply orb_prop in Hd. destruct Hd as [Hd|Hd]; [left; exact Hd|right; rewrite Hd; reflexivity]. }
  assert (Ez : has_size r = true \/ (if tf_has_dsize h then tf_dsize h else tx_dsize tx) = (if tf_has_dsize h then tf_dsize h else 0)).
  { apply orb_prop in Hz. destruct Hz as [Hz|Hz]; [left; exact Hz|right; rewrite Hz; reflexivity]. }
  cbn [map_first]. apply orb_prop in Hf. destruct Hf as [Hf|Hf].
  - (* the flags come from the trun or the tfhd: for every sample *)
    assert (Ef : has_sflags r = true \/ (if tf_has_dflags h then tf_dflags h else tx_dflags tx) = (if tf_has_dflags h then tf_dflags h else 0)).
    { apply orb_prop in Hf. destruct Hf as [Hf|Hf]; [left; exact Hf|right; rewrite Hf; reflexivity]. }
    f_equal; [|apply map_ext; intros s]; (apply resolve_sample_indep; [exact Ed|exact Ez|destruct Ef as [E|E]; [left|right; left]; exact E]).
  - (* first-sample flags, and the first sample is the only one *)
    apply andb_prop in Hf. destruct Hf as [Hf Hl]. destruct rest; [|discriminate]. cbn [map]. f_equal.
    apply resolve_sample_indep; [exact Ed|exact Ez|right; right; split; [exact Hf|reflexivity]].
Qed.

(* the guard is exact: a trun outside it is read differently with some trex *)
Lemma trun_indep_exact h r : (forall tx, resolve h (Some tx) r = resolve h None r) -> trun_indep h r = true.
Proof.
  intros H. specialize (H (mkTrex 0 1 1 1)). revert H. unfold trun_indep, resolve, defaults.
  destruct (tr_samples r) as [|s0 rest]; [reflexivity|]. cbn [map_first tx_ddur tx_dsize tx_dflags].
  intros H.
  pose proof (f_equal (fun l => match l with x :: _ => s_dur x | [] => 0 end) H) as Hdu.
  pose proof (f_equal (fun l => match l with x :: _ => s_size x | [] => 0 end) H) as Hsi.
  pose proof (f_equal (fun l => match l with x :: _ => s_flags x | [] => 0 end) H) as Hfl.
  pose proof (f_equal (fun l => match l with _ :: x :: _ => s_flags x | _ => 0 end) H) as Hf1.
  unfold resolve_sample in Hdu, Hsi, Hfl. cbn [s_dur s_size s_flags negb orb] in Hdu, Hsi, Hfl. clear H.
  destruct rest as [|s1 rest].
  - clear Hf1. revert Hdu Hsi Hfl. cbn [length Nat.leb].
    destruct (has_dur r), (tf_has_ddur h), (has_size r), (tf_has_dsize h), (has_sflags r), (tf_has_dflags h), (has_fsf r);
      cbn [negb orb andb]; intros; try reflexivity; discriminate.
  - cbn [map] in Hf1. unfold resolve_sample in Hf1. cbn [s_flags negb orb] in Hf1. revert Hdu Hsi Hfl Hf1. cbn [length Nat.leb].
    destruct (has_dur r), (tf_has_ddur h), (has_size r), (tf_has_dsize h), (has_sflags r), (tf_has_dflags h), (has_fsf r);
      cbn [negb orb andb]; intros; try reflexivity; discriminate.
Qed.

Lemma u32_lt x : u32 x < 4294967296.
Proof. apply N.mod_lt. discriminate. Qed.

Lemma u64_lt x : u64 x < 18446744073709551616.
Proof. apply N.mod_lt. discriminate. Qed.

Lemma trun_full_samples_props : forall ss off t data l,
  trun_full_samples ss off t data = Ok l ->
  Forall (fun s => s_size s < 4294967296) ss -> off < 4294967296 ->
  map fs_s l = ss /\ Forall sized_f l /\ retime t l = l.
Proof.
  induction ss as [|s ss IH]; intros off t data l H Hs Ho; cbn [trun_full_samples] in H.
  - injection H as <-. repeat split. constructor.
  - inversion Hs as [|? ? Hs0 Hs']; subst.
    destruct ((u32 (off + s_size s) <? off) || (lenN data <? u32 (off + s_size s))) eqn:E; [discriminate|].
    apply orb_false_iff in E. destruct E as [E1 E2]. apply N.ltb_ge in E1. apply N.ltb_ge in E2.
    destruct (trun_full_samples ss (u32 (off + s_size s)) (u64 (t + s_dur s)) data) as [tl| | |] eqn:Et;
      cbn [rbind] in H; try discriminate.
    injection H as <-.
    destruct (IH _ _ _ _ Et Hs' (u32_lt _)) as [Hm [Hz Hr]].
    (* a sum of two uint32 that wrapped would be below its first summand *)
    assert (Hsm : off + s_size s < 4294967296) by (clear - E1 Hs0 Ho; unfold u32 in E1; lia).
    rewrite u32_small in E2 by exact Hsm.
    split; [cbn [map fs_s]; rewrite Hm; reflexivity|]. split.
    + constructor; [|exact Hz]. unfold sized_f. cbn [fs_s fs_data]. unfold lenN at 1.
      rewrite sub_list_length; [lia|]. unfold lenN in E2. lia.
    + cbn [retime fs_s fs_data]. rewrite Hr. reflexivity.
Qed.

Lemma frag_full_samples_props h tx d : forall truns base l,
  frag_full_samples h tx truns base d = Ok l ->
  base < 18446744073709551616 ->
  Forall (fun r => Forall (fun s => s_size s < 4294967296) (resolve h tx r)) truns ->
  Forall sized_f l /\ retime base l = l.
Proof.
  induction truns as [|r truns IH]; intros base l H Hb Hs; cbn [frag_full_samples] in H.
  - injection H as <-. split; [constructor|reflexivity].
  - inversion Hs as [|? ? Hs0 Hs']; subst. cbv zeta in H.
    destruct (_ && _) in H; [discriminate|].
    apply rbind_ok in H. destruct H as (l1 & E1 & H). apply rbind_ok in H. destruct H as (l2 & E2 & H). injection H as <-.
    destruct (trun_full_samples_props _ _ _ _ _ E1 Hs0 (u32_lt _)) as [Hm [Hz Hr]].
    destruct (IH _ _ E2 (u64_lt _) Hs') as [Hz2 Hr2].
    split; [apply Forall_app; split; assumption|].
    rewrite retime_app by exact Hb. rewrite Hr. f_equal.
    replace (durs l1) with (C05Model.total_dur (resolve h tx r)); [exact Hr2|].
    unfold durs, C05Model.total_dur. rewrite Hm. reflexivity.
Qed.

Lemma retime_consistent base l : base < 18446744073709551616 -> retime base l = l -> C05RoundProofs.consistent l.
Proof.
  intros Hb Hr. unfold C05RoundProofs.consistent. destruct l as [|f l]; [exact I|].
  assert (Hf : fs_dts f = base).
  { cbn [retime] in Hr. injection Hr as Hr0 _. rewrite <- Hr0. reflexivity. }
  rewrite Hf. split; [exact Hb|exact Hr].
Qed.

(* a decoded single-traf input: reading with nil = reading with the input's trex; the result satisfies C05's
   round-trip hypotheses *)
Lemma read_guarded d tx l :
  no_trex_reliance d = true -> din_wf d = true -> tx_track tx = din_track d ->
  get_full_samples d (Some tx) = Ok l ->
  get_full_samples d None = Ok l /\ Forall sized_f l /\ C05RoundProofs.consistent l.
Proof.
  unfold no_trex_reliance, din_wf, din_track, get_full_samples.
  destruct (df_trafs d) as [|t [|t2 ts]]; try discriminate.
  intros Hg Hw Ht. cbn [find]. rewrite Ht, N.eqb_refl. cbn [rbind].
  apply andb_prop in Hw. destruct Hw as [Hb Hsz]. apply N.ltb_lt in Hb.
  assert (Heq : forall truns base, forallb (trun_indep (tf_hd t)) truns = true ->
            frag_full_samples (tf_hd t) (Some tx) truns base d = frag_full_samples (tf_hd t) None truns base d).
  { induction truns as [|r truns IH]; intros base Hall; [reflexivity|]. cbn [forallb] in Hall.
    apply andb_prop in Hall. destruct Hall as [Hr Hall]. cbn [frag_full_samples].
    rewrite (trun_indep_resolve _ _ tx Hr). cbv zeta. rewrite !IH by exact Hall. reflexivity. }
  rewrite Heq by exact Hg. intros H. split; [exact H|].
  destruct (frag_full_samples_props (tf_hd t) None d (tf_truns t) (td_base (tf_dt t)) l H Hb) as [Hz Hr].
  { rewrite forallb_forall in Hsz. apply Forall_forall. intros r Hr. specialize (Hsz r Hr).
    rewrite forallb_forall in Hsz. apply Forall_forall. intros s Hs. apply N.ltb_lt. apply Hsz. exact Hs. }
  split; [exact Hz|]. apply (retime_consistent (td_base (tf_dt t))); assumption.
Qed.

Lemma add_fulls_ign_eq T : forall (l : list fullsample) fr, In T (tracks_of fr) -> add_fulls_ign fr T l = add_fulls fr T l.
Proof.
  induction l as [|x l IH]; intros fr Hin; cbn [add_fulls_ign add_fulls]; [reflexivity|].
  destruct (add_fulls_ok_multi T [x] fr Hin) as [fr1 [Ha Ht]]. cbn [add_fulls] in Ha.
  destruct (step fr (op_of T x)) as [fr2| | |] eqn:Es; cbn [rbind] in Ha; try discriminate.
  injection Ha as ->. cbn [rbind]. apply IH. rewrite Ht. exact Hin.
Qed.

Lemma combine_loop_mux ids : forall files ls i rem out,
  Forall2 (fun f l => exists d, single_frag f = Ok d /\ get_full_samples d None = Ok l) files ls ->
  skipn i ids = rem -> (length files <= length rem)%nat -> (forall T, In T rem -> In T (tracks_of out)) ->
  combine_loop ids files i out = mux_add out (combine rem ls).
Proof.
  induction files as [|f files IH]; intros ls i rem out HF Hsk Hlen Hin; subst rem;
    inversion HF as [|? l ? ls' [d [Hd Hr]] HF']; subst.
  - cbn [combine_loop]. destruct (skipn i ids); reflexivity.
  - destruct (skipn i ids) as [|T tl] eqn:Es; [cbn [length] in Hlen; lia|].
    destruct (skipn_cons_nth ids i T tl Es) as [Hn Hs']. cbn [combine_loop combine mux_add].
    rewrite Hd. cbn [rbind]. rewrite Hr. cbn [rbind]. rewrite Hn.
    assert (HT : In T (tracks_of out)) by (apply Hin; left; reflexivity).
    assert (E : match l with [] => Ok out | _ :: _ => add_fulls_ign out T l end = add_fulls out T l).
    { destruct l; [reflexivity|]. apply add_fulls_ign_eq. exact HT. }
    rewrite E. destruct (add_fulls_ok_multi T l out HT) as [fr1 [Ha Ht]]. rewrite Ha. cbn [rbind].
    apply (IH ls' (S i) tl fr1 HF' Hs'); [cbn [length] in Hlen; lia|].
    intros T' HT'. rewrite Ht. apply Hin. right. exact HT'.
Qed.

(* with at least one traf (C05's encode_frag succeeds only then) the two agree *)
Lemma encode_frag_nz_ok fr fe : encode_frag false fr = Ok fe -> encode_frag_nz fr = encode_frag false fr.
Proof.
  intros He. unfold encode_frag_nz. destruct (fr_trafs fr) as [|t ts] eqn:Et; [|reflexivity].
  exfalso. unfold encode_frag in He. cbn [rbind] in He.
  assert (H0 : fr_trafs (set_offsets fr) = []) by (unfold set_offsets; rewrite Et; reflexivity).
  rewrite H0 in He. discriminate.
Qed.

Lemma combine_fst {A B} : forall (a : list A) (b : list B), length a = length b -> map fst (combine a b) = a.
Proof. induction a as [|x a IH]; intros [|y b] H; try discriminate; [reflexivity|]. cbn [combine map fst]. rewrite IH; [reflexivity|]. cbn in H. lia. Qed.
Lemma combine_snd {A B} : forall (a : list A) (b : list B), length a = length b -> map snd (combine a b) = b.
Proof. induction a as [|x a IH]; intros [|y b] H; try discriminate; [reflexivity|]. cbn [combine map snd]. rewrite IH; [reflexivity|]. cbn in H. lia. Qed.

Lemma g_count_combine ids ls : length ids = length ls -> g_count (combine ids ls) = fulls_count ls.
Proof. intros H. unfold g_count, fulls_count. rewrite <- (combine_snd ids ls H) at 2. rewrite map_map. reflexivity. Qed.
Lemma g_bytes_combine ids ls : length ids = length ls -> g_bytes (combine ids ls) = fulls_bytes ls.
Proof. intros H. unfold g_bytes, fulls_bytes. rewrite <- (combine_snd ids ls H) at 2. rewrite map_map. reflexivity. Qed.

Lemma Forall2_length {A B} (P : A -> B -> Prop) l1 l2 : Forall2 P l1 l2 -> length l1 = length l2.
Proof. induction 1; [reflexivity|cbn; lia]. Qed.

Lemma Forall2_combine_in {A B} (P : A -> B -> Prop) : forall (a : list A) (b : list B),
  length a = length b -> (forall x y, In (x, y) (combine a b) -> P x y) -> Forall2 P a b.
Proof.
  induction a as [|x a IH]; intros [|y b] H Hp; try discriminate; constructor.
  - apply Hp. left. reflexivity.
  - apply IH; [cbn in H; lia|]. intros x' y' Hi. apply Hp. right. exact Hi.
Qed.

(* an input: the decoded media file and the trex of its init segment *)
Definition cinput := (dfile * C05Model.trex)%type.

Definition input_ok (x : cinput) : Prop :=
  exists d, single_frag (fst x) = Ok d /\ no_trex_reliance d = true /\ din_wf d = true /\ tx_track (snd x) = din_track d.

Lemma combine_end_to_end ids (ins : list cinput) ls pos0 :
  NoDup ids -> ins <> [] -> length ids = length ins ->
  Forall input_ok ins ->
  Forall2 (fun x l => read_input (snd x) (fst x) = Ok l) ins ls ->
  64 * fulls_count ls + fulls_bytes ls + 40 * lenN ids + 200 < 2147483648 -> pos0 < 4611686018427387904 ->
  exists fe, combine_media ids (map fst ins) = Ok fe /\
             Forall2 (fun T l => forall dd ds df, read_output T dd ds df pos0 fe = Ok l) ids ls.
Proof.
  intros Hnd Hne Hlen Hok Hrd Hsmall Hpos.
  pose proof (Forall2_length _ _ _ Hrd) as Hll.
  (* every input: nil reading, sized, consistent *)
  assert (Hnil : Forall2 (fun f l => exists d, single_frag f = Ok d /\ get_full_samples d None = Ok l) (map fst ins) ls /\
                 Forall (fun l => Forall sized_f l /\ C05RoundProofs.consistent l) ls).
  { clear - Hok Hrd. induction Hrd as [|x l ins ls Hx _ IH]; [split; constructor|].
    inversion Hok as [|? ? [d [Hd [Hg [Hw Ht]]]] Hok']; subst. destruct (IH Hok') as [IH1 IH2].
    unfold read_input in Hx. rewrite Hd in Hx. cbn [rbind] in Hx.
    destruct (read_guarded d (snd x) l Hg Hw Ht Hx) as [Hn [Hz Hc]].
    split; [cbn [map]; constructor; [exists d; split; assumption|exact IH1]|constructor; [split; assumption|exact IH2]]. }
  destruct Hnil as [Hnil Hprops].
  set (g := combine ids ls).
  assert (Hlg : length ids = length ls) by (rewrite Hlen; exact Hll).
  assert (Hids : map fst g = ids) by (apply combine_fst; exact Hlg).
  assert (Hloop : combine_loop ids (map fst ins) 0 (create_multi ids) = mux_add (create_multi ids) g).
  { apply (combine_loop_mux ids (map fst ins) ls 0 ids); [exact Hnil|reflexivity|rewrite map_length; lia|].
    intros T HT. rewrite tracks_of_create_multi. exact HT. }
  destruct (mux_add_ok g (create_multi ids)) as [fr Hadd].
  { intros p Hp. rewrite tracks_of_create_multi, <- Hids. apply in_map. exact Hp. }
  assert (Hsz : Forall (fun p => Forall sized_f (snd p)) g).
  { apply Forall_forall. intros p Hp. apply (in_map snd) in Hp. unfold g in Hp. rewrite combine_snd in Hp by exact Hlg.
    rewrite Forall_forall in Hprops. exact (proj1 (Hprops _ Hp)). }
  assert (Hidne : ids <> []) by (destruct ids; [destruct ins; [congruence|discriminate]|discriminate]).
  destruct (write_mux_encode false ids g pos0 fr Hnd Hidne Hids Hsz) as [fe [He Hgd]]; try assumption.
  { unfold g. rewrite g_count_combine, g_bytes_combine by exact Hlg. exact Hsmall. }
  exists fe. split.
  - assert (Hcm : combine_media ids (map fst ins) = do fr0 <- combine_loop ids (map fst ins) 0 (create_multi ids); encode_frag_nz fr0).
    { destruct ins; [congruence|reflexivity]. }
    rewrite Hcm, Hloop, Hadd. cbn [rbind]. rewrite (encode_frag_nz_ok fr fe He). exact He.
  - apply Forall2_combine_in; [exact Hlg|]. intros T l Hin dd ds df. unfold read_output.
    assert (Hw : write_mux_segment false ids g = Ok fe) by (unfold write_mux_segment; rewrite Hadd; cbn [rbind]; exact He).
    rewrite (write_read_mux false ids g fe pos0 (mkTrex T dd ds df) Hnd Hids); try assumption.
    + cbn [tx_track]. unfold pick_track. rewrite (pick_unique T l g); [reflexivity|rewrite Hids; exact Hnd|exact Hin].
    + rewrite ops_of_length. unfold g. rewrite g_count_combine by exact Hlg. lia.
    + cbn [tx_track]. unfold pick_track. rewrite (pick_unique T l g); [|rewrite Hids; exact Hnd|exact Hin].
      apply (in_map snd) in Hin. unfold g in Hin. rewrite combine_snd in Hin by exact Hlg. cbn [snd] in Hin.
      rewrite Forall_forall in Hprops. exact (proj2 (Hprops _ Hin)).
Qed.

(* one input, one trun without the duration flag, the tfhd has no default duration, the init's trex says 10:
   a reader with the init sees durations 10 and decode times 100, 110; combine-segs writes durations 0 and 100, 100 *)
Definition wit_d : dfrag :=
  mkDfrag [mkTraf (mkTfhd 131072 1 0 0 0 0 0) (mkTfdt 0 100)
             [mkTrun 0 1537 104 0 [mkSample 33554432 0 2 0; mkSample 16842752 0 1 0] 0] 0]
          [7; 8; 9] 0 104.
Definition wit_in : cinput := ([[wit_d]], mkTrex 1 10 0 0).

Lemma combine_unguarded_refuted :
  exists (x : cinput) l fe,
    (exists d, single_frag (fst x) = Ok d /\ din_wf d = true /\ tx_track (snd x) = din_track d /\ no_trex_reliance d = false) /\
    read_input (snd x) (fst x) = Ok l /\ combine_media [1] [fst x] = Ok fe /\
    exists l', read_output 1 10 0 0 24 fe = Ok l' /\ l' <> l /\ map fs_data l' = map fs_data l.
Proof.
  exists wit_in. eexists. eexists. split.
  { exists wit_d. repeat split; reflexivity. }
  split; [vm_compute; reflexivity|]. split; [vm_compute; reflexivity|].
  eexists. split; [vm_compute; reflexivity|]. split; [discriminate|reflexivity].
Qed.
