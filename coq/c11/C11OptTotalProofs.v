(* C11OptTotalProofs.v — one multi-track segment in total form, trun optimisation on or off: it is written and every
   track reads back what was added to it.  Tracks without a sample in the interval (also all of them) are included. *)
From V.lib Require Import Base.
From V.c11 Require Import C11Model.
From V.c09 Require Import C09Spec.
From V.c05 Require Import C05Model C05FragModel C05HistProofs C05ReadProofs C05RoundProofs.
From V.c11 Require Import C11FetchModel C11FragProofs C11MuxProofs C11MuxTotalProofs.

Lemma write_mux_segment_total opt ids g pos0 :
  NoDup ids -> ids <> [] -> map fst g = ids ->
  Forall (fun p => Forall sized_f (snd p) /\ C05RoundProofs.consistent (snd p)) g ->
  64 * g_count g + g_bytes g + 40 * lenN ids + 300 < 2147483648 -> pos0 < 4611686018427387904 ->
  exists fe, write_mux_segment opt ids g = Ok fe /\
    forall tx : C05Model.trex, read_back tx pos0 [] fe = Ok (pick_track (tx_track tx) g).
Proof.
  intros Hnd Hne Hids Hall Hsmall Hpos.
  assert (Hsz : Forall (fun p => Forall sized_f (snd p)) g) by (eapply Forall_impl; [|exact Hall]; intros p [H _]; exact H).
  destruct (mux_add_ok g (create_multi ids)) as [fr Hadd].
  { intros p Hp. rewrite tracks_of_create_multi, <- Hids. apply in_map. exact Hp. }
  destruct (write_mux_encode opt ids g pos0 fr Hnd Hne Hids Hsz ltac:(destruct opt; lia) Hpos Hadd) as [fe [He Hg]].
  assert (Hw : write_mux_segment opt ids g = Ok fe) by (unfold write_mux_segment; rewrite Hadd; cbn [rbind]; exact He).
  exists fe. split; [exact Hw|]. intros tx.
  apply (write_read_mux opt ids g fe pos0 tx Hnd Hids); try assumption.
  - rewrite ops_of_length. lia.
  - destruct (in_dec N.eq_dec (tx_track tx) ids) as [Hin|Hnin].
    + rewrite <- Hids in Hin. apply in_map_iff in Hin. destruct Hin as [[T l] [HT Hp]]. cbn [fst] in HT. subst T.
      unfold pick_track. rewrite (pick_unique (tx_track tx) l g); [|rewrite Hids; exact Hnd|exact Hp].
      rewrite Forall_forall in Hall. exact (proj2 (Hall _ Hp)).
    + unfold pick_track. rewrite pick_absent by (rewrite Hids; exact Hnin). exact I.
Qed.

(* the empty multi-track segment (no track has a sample in the interval): written with and without optimisation,
   every reader gets no sample *)
Lemma write_mux_segment_empty opt ids pos0 :
  NoDup ids -> ids <> [] -> lenN ids < 1000000 -> pos0 < 4611686018427387904 ->
  exists fe, write_mux_segment opt ids (map (fun T => (T, [])) ids) = Ok fe /\
    forall tx : C05Model.trex, read_back tx pos0 [] fe = Ok [].
Proof.
  intros Hnd Hne Hk Hpos. set (g := map (fun T : N => (T, @nil fullsample)) ids).
  assert (Hids : map fst g = ids) by (unfold g; rewrite map_map; apply map_id).
  assert (Hc : g_count g = 0 /\ g_bytes g = 0).
  { unfold g, g_count, g_bytes. rewrite !map_map. cbn [snd flat_map]. clear. induction ids; [split; reflexivity|cbn [map sumN]; exact IHids]. }
  destruct Hc as [Hc Hb].
  destruct (write_mux_segment_total opt ids g pos0 Hnd Hne Hids) as [fe [Hw Hr]].
  - unfold g. apply Forall_forall. intros p Hp. apply in_map_iff in Hp. destruct Hp as [T [<- _]]. split; [constructor|exact I].
  - rewrite Hc, Hb. lia.
  - exact Hpos.
  - exists fe. split; [exact Hw|]. intros tx. rewrite Hr.
    unfold pick_track, g. clear. induction ids as [|T ids IH]; [reflexivity|]. cbn [map flat_map fst snd].
    destruct (T =? tx_track tx); exact IH.
Qed.

(* the bound of mux_seg_small with room for what OptimizeTfhdTrun may add to the first tfhd / trun *)
Definition mux_seg_small_opt (trs : list strack) (k : nat) : bool :=
  64 * sumN (map (fun t => snd (iv_at t k) + 1 - fst (iv_at t k)) trs)
  + sumN (map (fun t => S_total_size (st_tb t) (fst (iv_at t k)) (snd (iv_at t k))) trs)
  + 40 * lenN trs + 300 <? 2147483648.
