(* C11SegProofs.v — the segmenter's intervals tile the sample numbers 1..N of every track. *)
From V.lib Require Import Base.
From V.c11 Require Import C11Model.

Lemma skipn_cons_nth {A} (l : list A) : forall i x tl, skipn i l = x :: tl -> nth_error l i = Some x /\ skipn (S i) l = tl.
Proof.
  induction l as [|a l IH]; intros i x tl H; [destruct i; discriminate|].
  destruct i as [|i]; [cbn in H; injection H as -> ->; split; reflexivity|]. exact (IH i x tl H).
Qed.

Lemma Forall2_impl_in {A B} (P Q : A -> B -> Prop) : forall l l2,
  (forall x y, In x l -> P x y -> Q x y) -> Forall2 P l l2 -> Forall2 Q l l2.
Proof.
  induction l as [|x l IH]; intros l2 Himp H; inversion H; subst; constructor.
  - apply Himp; [left; reflexivity|assumption].
  - apply IH; [intros; apply Himp; [right|]; assumption|assumption].
Qed.

(* ceil_div r d is the least c with r <= c * d *)
Lemma ceil_le r d c : d <> 0 -> (ceil_div r d <= c <-> r <= c * d).
Proof.
  intros Hd. unfold ceil_div.
  pose proof (N.div_mod r d Hd) as E. pose proof (N.mod_lt r d Hd) as Hm.
  destruct (r mod d =? 0) eqn:E0; [apply N.eqb_eq in E0|apply N.eqb_neq in E0];
    revert E Hm E0; generalize (r / d) (r mod d); intros q m -> Hm E0; nia.
Qed.

Lemma ceil_le_count rel c d : rel < c * d -> ceil_div rel d <= c.
Proof. intros H. apply ceil_le; [intros ->|]; lia. Qed.

Lemma ceil_mono a b d : d <> 0 -> a <= b -> ceil_div a d <= ceil_div b d.
Proof.
  intros Hd Hab. apply ceil_le; [exact Hd|]. etransitivity; [exact Hab|]. apply (ceil_le b d); [exact Hd|lia].
Qed.

Lemma gdt_loop_ge e : forall rem dec dt d, gdt_loop e rem dec = Ok (dt, d) -> dec <= dt.
Proof.
  induction e as [|[c d0] t IH]; intros rem dec dt d H; cbn [gdt_loop] in H; [discriminate|].
  destruct (c <=? rem) eqn:E.
  - apply IH in H. nia.
  - inversion H; subst. nia.
Qed.

Lemma gdt_loop_mono e : forall r1 r2 dec dt1 d1 dt2 d2,
  r1 <= r2 -> gdt_loop e r1 dec = Ok (dt1, d1) -> gdt_loop e r2 dec = Ok (dt2, d2) -> dt1 <= dt2.
Proof.
  induction e as [|[c d0] t IH]; intros r1 r2 dec dt1 d1 dt2 d2 Hr H1 H2;
    cbn [gdt_loop] in H1, H2; [discriminate|].
  destruct (c <=? r1) eqn:E1; destruct (c <=? r2) eqn:E2.
  - eapply IH; [ | exact H1 | exact H2 ]. lia.
  - lia.
  - inversion H1; subst. apply gdt_loop_ge in H2.
    assert (r1 * d1 <= c * d1) by nia. lia.
  - inversion H1; inversion H2; subst. nia.
Qed.

Lemma get_decode_time_mono e n1 n2 dt1 d1 dt2 d2 :
  n1 <= n2 -> get_decode_time e n1 = Ok (dt1, d1) -> get_decode_time e n2 = Ok (dt2, d2) -> dt1 <= dt2.
Proof.
  unfold get_decode_time. intros Hn H1 H2.
  destruct (n1 =? 0) eqn:E1; [discriminate|]. destruct (n2 =? 0) eqn:E2; [discriminate|].
  eapply gdt_loop_mono; [ | exact H1 | exact H2 ]. lia.
Qed.

(* a successful lookup lands strictly after the samples already passed, except in the
   "final single zero duration" case *)
Lemma snat_loop_lower e : forall t aT aN lc ld n,
  snat_loop e t aT aN lc ld = Ok n -> aN + 1 <= n \/ (n = aN /\ lc = 1 /\ ld = 0).
Proof.
  induction e as [|[c d] rest IH]; intros t aT aN lc ld n H; cbn [snat_loop] in H.
  - destruct (ld =? 0) eqn:E1; destruct (lc =? 1) eqn:E2; destruct (t =? aT) eqn:E3;
      cbn [andb] in H; try discriminate.
    inversion H; subst. right. lia.
  - destruct (t <? aT + c * d) eqn:E.
    + inversion H; subst. left. lia.
    + apply IH in H. destruct H as [H | (H1 & H2 & H3)]; left; lia.
Qed.

Lemma snat_loop_upper e : forall t aT aN lc ld n,
  snat_loop e t aT aN lc ld = Ok n -> aT <= t -> n <= aN + stts_total e + 1.
Proof.
  induction e as [|[c d] rest IH]; intros t aT aN lc ld n H Ht; cbn [snat_loop] in H; cbn [stts_total].
  - destruct ((ld =? 0) && (lc =? 1) && (t =? aT)); [|discriminate]. inversion H; subst. lia.
  - destruct (t <? aT + c * d) eqn:E.
    + inversion H; subst. assert (ceil_div (t - aT) d <= c) by (apply ceil_le_count; lia). lia.
    + apply IH in H; lia.
Qed.

Lemma snat_loop_mono e : forall t1 t2 aT aN lc ld n1 n2,
  t1 <= t2 -> aT <= t1 ->
  snat_loop e t1 aT aN lc ld = Ok n1 -> snat_loop e t2 aT aN lc ld = Ok n2 -> n1 <= n2.
Proof.
  induction e as [|[c d] rest IH]; intros t1 t2 aT aN lc ld n1 n2 Ht Ha H1 H2;
    cbn [snat_loop] in H1, H2.
  - destruct ((ld =? 0) && (lc =? 1) && (t1 =? aT)); [|discriminate].
    destruct ((ld =? 0) && (lc =? 1) && (t2 =? aT)); [|discriminate].
    inversion H1; inversion H2; subst. lia.
  - destruct (t1 <? aT + c * d) eqn:E1; destruct (t2 <? aT + c * d) eqn:E2.
    + inversion H1; inversion H2; subst.
      assert (d <> 0) by (intros ->; lia).
      assert (ceil_div (t1 - aT) d <= ceil_div (t2 - aT) d) by (apply ceil_mono; lia). lia.
    + inversion H1; subst.
      assert (ceil_div (t1 - aT) d <= c) by (apply ceil_le_count; lia).
      apply snat_loop_lower in H2. destruct H2 as [H2 | (H2 & H3 & H4)]; [lia|].
      subst. lia.
    + lia.
    + eapply IH; [ | | exact H1 | exact H2 ]; lia.
Qed.

Lemma snat_ge1 e t n : get_sample_nr_at_time e t = Ok n -> 1 <= n.
Proof.
  unfold get_sample_nr_at_time. destruct e as [|p e']; [discriminate|].
  intros H. apply snat_loop_lower in H. lia.
Qed.

Lemma snat_upper e t n : get_sample_nr_at_time e t = Ok n -> n <= stts_total e + 1.
Proof.
  unfold get_sample_nr_at_time. destruct e as [|p e']; [discriminate|].
  intros H. apply snat_loop_upper in H; lia.
Qed.

Lemma snat_mono e t1 t2 n1 n2 :
  t1 <= t2 -> get_sample_nr_at_time e t1 = Ok n1 -> get_sample_nr_at_time e t2 = Ok n2 -> n1 <= n2.
Proof.
  unfold get_sample_nr_at_time. destruct e as [|p e']; [discriminate|].
  intros Ht H1 H2. eapply snat_loop_mono; [ | | exact H1 | exact H2 ]; lia.
Qed.

Fixpoint chain (lo : N) (l : list N) : Prop :=
  match l with [] => True | x :: t => lo <= x /\ chain x t end.

Lemma chain_weaken l : forall lo lo', lo' <= lo -> chain lo l -> chain lo' l.
Proof. destruct l; cbn [chain]; intros; [exact I|]. intuition lia. Qed.

Lemma sorted_from_chain l : forall lo, sorted_from lo l = true -> chain lo l.
Proof.
  induction l as [|x t IH]; intros lo H; cbn [sorted_from chain] in *; [exact I|].
  apply andb_true_iff in H. destruct H as [H1 H2]. split; [lia|]. apply IH, H2.
Qed.

Lemma rbind_ok {A B} (r : res A) (f : A -> res B) b :
  rbind r f = Ok b -> exists a, r = Ok a /\ f a = Ok b.
Proof. destruct r; cbn [rbind]; intros H; try discriminate. eauto. Qed.

Lemma starts_loop_sorted st ct step : forall stss next lo dlo sps,
  chain lo stss ->
  (forall nr dt d, lo <= nr -> get_decode_time st nr = Ok (dt, d) -> dlo <= dt) ->
  starts_loop st ct step next stss = Ok sps ->
  chain dlo (map sp_dts sps).
Proof.
  induction stss as [|nr t IH]; intros next lo dlo sps Hc Hlo H; cbn [starts_loop] in H.
  - inversion H; subst. exact I.
  - cbn [chain] in Hc. destruct Hc as [Hc1 Hc2].
    apply rbind_ok in H. destruct H as ([dt d] & Hg & H). cbn [fst] in H.
    apply rbind_ok in H. destruct H as (pres & _ & H).
    destruct (Z.of_N next <=? pres)%Z.
    + apply rbind_ok in H. destruct H as (r & Hr & H). inversion H; subst.
      cbn [map chain sp_dts]. split.
      * eapply Hlo; [exact Hc1 | exact Hg].
      * eapply IH; [exact Hc2 | | exact Hr].
        intros nr' dt' d' Hn Hg'. eapply get_decode_time_mono; [exact Hn | exact Hg | exact Hg'].
    + eapply IH; [exact Hc2 | | exact H].
      intros nr' dt' d' Hn Hg'. eapply Hlo; [ | exact Hg']. lia.
Qed.

(* ivs are consecutive intervals covering the sample numbers s..e: every interval starts right behind the one
   before it and ends at most one below its own start (then it is empty) *)
Fixpoint tiles (s : N) (ivs : list (N * N)) (e : N) : Prop :=
  match ivs with
  | [] => s = e + 1
  | iv :: r => fst iv = s /\ s <= snd iv + 1 /\ tiles (snd iv + 1) r e
  end.

Lemma tiles_le ivs : forall s e, tiles s ivs e -> s <= e + 1.
Proof.
  induction ivs as [|iv r IH]; intros s e H; cbn [tiles] in H; [lia|].
  destruct H as (_ & Hs & Hr). apply IH in Hr. lia.
Qed.

Lemma tiles_ordered ivs : forall s e, tiles s ivs e -> Forall (fun iv => fst iv <= snd iv + 1) ivs.
Proof.
  induction ivs as [|iv r IH]; intros s e H; cbn [tiles] in H; constructor.
  - lia.
  - apply (IH (snd iv + 1) e), H.
Qed.

Lemma seq_split a b c : (a <= b)%nat -> (b <= c)%nat ->
  seq a (c - a) = seq a (b - a) ++ seq b (c - b).
Proof.
  intros H1 H2. replace (c - a)%nat with ((b - a) + (c - b))%nat by lia.
  rewrite seq_app. do 2 f_equal. lia.
Qed.

Lemma tiles_range ivs : forall s e, tiles s ivs e ->
  concat (map range ivs) = map N.of_nat (seq (N.to_nat s) (N.to_nat (e + 1) - N.to_nat s)).
Proof.
  induction ivs as [|iv r IH]; intros s e H; cbn [tiles] in H.
  - rewrite H, Nat.sub_diag. reflexivity.
  - destruct H as (Hf & Hs & Hr). pose proof (tiles_le _ _ _ Hr) as Hle.
    cbn [map concat]. rewrite (IH _ _ Hr). unfold range. rewrite Hf, <- map_app. f_equal.
    symmetry. apply seq_split; lia.
Qed.

Lemma tiles_seqN1 ivs n : tiles 1 ivs n -> concat (map range ivs) = seqN1 n.
Proof.
  intros H. rewrite (tiles_range _ _ _ H). unfold seqN1. do 2 f_equal. lia.
Qed.

(* the loop invariant: s = the effective start of the next interval; every later lookup lands at or
   after s; the result covers s .. last_end *)
Lemma intervals_loop_tiles syncTs trk N : forall sps start nextStart ivs tlo,
  let s := if nextStart =? 0 then start else nextStart in
  sps <> [] ->
  1 <= s -> s <= N + 1 -> N < 4294967296 ->
  stts_total (t_stts trk) <= N ->
  chain tlo (map sp_dts (tl sps)) ->
  (forall t n, tlo <= t -> get_sample_nr_at_time (t_stts trk) (t * t_timescale trk / syncTs) = Ok n -> s <= n) ->
  intervals_loop syncTs trk N sps start nextStart = Ok ivs ->
  tiles s ivs N.
Proof.
  induction sps as [|sp rest IH]; intros start nextStart ivs tlo s Hne Hs1 HsN HN Htot Hch Hlook H;
    [congruence|].
  cbn [intervals_loop] in H. fold s in H.
  destruct rest as [|sp2 rest'].
  - inversion H; subst. cbn [tiles fst snd]. auto.
  - destruct (syncTs =? 0) eqn:Ets; [discriminate|].
    apply rbind_ok in H. destruct H as (n & Hn & H).
    apply rbind_ok in H. destruct H as (r & Hr & H). inversion H; subst. clear H.
    cbn [tl map chain] in Hch. destruct Hch as [Hc1 Hc2].
    pose proof (snat_ge1 _ _ _ Hn) as Hn1.
    pose proof (snat_upper _ _ _ Hn) as HnU.
    assert (Hsn : s <= n) by (eapply Hlook; [exact Hc1 | exact Hn]).
    assert (Hu : u32 (n + 4294967295) + 1 = n) by (unfold u32; lia).
    specialize (IH s n r (sp_dts sp2)).
    assert (En : (n =? 0) = false) by lia. rewrite En in IH.
    cbn [tiles fst snd]. rewrite Hu. split; [reflexivity|]. split; [exact Hsn|].
    apply IH; try assumption; try lia; try discriminate.
    intros t m Ht Hm. eapply snat_mono; [ | exact Hn | exact Hm].
    apply N.div_le_mono; [lia|]. apply N.mul_le_mono_r. exact Ht.
Qed.

Lemma intervals_tiles syncTs sps trk ivs :
  sps <> [] -> chain 0 (map sp_dts sps) ->
  stts_total (t_stts trk) <= t_nsamples trk -> t_nsamples trk < 4294967296 ->
  get_segment_intervals syncTs sps trk = Ok ivs ->
  tiles 1 ivs (t_nsamples trk).
Proof.
  intros Hne Hch Htot HN H. unfold get_segment_intervals in H.
  apply (intervals_loop_tiles syncTs trk (t_nsamples trk) sps 1 0 ivs
           (match sps with [] => 0 | sp :: _ => sp_dts sp end)); try assumption; cbn [N.eqb]; try lia.
  - destruct sps as [|sp [|sp2 r]]; cbn [tl map chain] in *; intuition.
  - intros t n _ Hn. eapply snat_ge1; exact Hn.
Qed.

Lemma first_video_in ts rt : first_video ts = Some rt -> In rt ts.
Proof.
  induction ts as [|t r IH]; cbn [first_video]; [discriminate|].
  destruct (t_video t); intros H; [inversion H; subst; left; reflexivity | right; auto].
Qed.

Lemma starts_sorted ts d syncTs sps :
  wf_tracks ts = true -> get_segment_starts ts d = Ok (syncTs, sps) -> chain 0 (map sp_dts sps).
Proof.
  intros Hwf H. unfold get_segment_starts in H.
  destruct (first_video ts) as [rt|] eqn:Efv; [|discriminate].
  destruct (t_stss rt) as [stss|] eqn:Est; [|discriminate].
  apply rbind_ok in H. destruct H as (sps' & Hs & H). inversion H; subst.
  apply first_video_in in Efv.
  unfold wf_tracks in Hwf. rewrite forallb_forall in Hwf. specialize (Hwf _ Efv).
  unfold wf_track in Hwf. rewrite Est in Hwf. apply andb_true_iff in Hwf. destruct Hwf as [_ Hso].
  eapply starts_loop_sorted; [apply sorted_from_chain; exact Hso | | exact Hs].
  intros; lia.
Qed.

Lemma all_intervals_ok f syncTs sps : forall ts ivss,
  all_intervals f syncTs sps ts = Ok ivss -> Forall2 (fun t ivs => f syncTs sps t = Ok ivs) ts ivss.
Proof.
  induction ts as [|t r IH]; intros ivss H; cbn [all_intervals] in H.
  - inversion H; subst. constructor.
  - apply rbind_ok in H. destruct H as (iv & Hiv & H).
    apply rbind_ok in H. destruct H as (rest & Hrest & H). inversion H; subst.
    constructor; [exact Hiv | apply IH, Hrest].
Qed.

Lemma plan_ok ts d ivss : segment_plan ts d = Ok ivss ->
  exists syncTs sps, get_segment_starts ts d = Ok (syncTs, sps) /\ sps <> [] /\
    Forall2 (fun t ivs => get_segment_intervals syncTs sps t = Ok ivs) ts ivss.
Proof.
  intros H. unfold segment_plan, segment_plan_with in H.
  apply rbind_ok in H. destruct H as ([syncTs sps] & Hs & H).
  apply rbind_ok in H. destruct H as (ivs & Hiv & H).
  exists syncTs, sps. destruct sps; [discriminate|]. inversion H; subst.
  split; [exact Hs|]. split; [discriminate|]. apply all_intervals_ok, Hiv.
Qed.

Lemma plan_tiles ts d ivss :
  wf_tracks ts = true -> small_tracks ts = true ->
  segment_plan ts d = Ok ivss ->
  Forall2 (fun t ivs => tiles 1 ivs (t_nsamples t)) ts ivss.
Proof.
  intros Hwf Hsm H. destruct (plan_ok ts d ivss H) as (syncTs & sps & Hs & Hne & Hiv).
  pose proof (starts_sorted ts d syncTs sps Hwf Hs) as Hch.
  eapply Forall2_impl_in; [|exact Hiv]. intros t ivs Ht Hi.
  unfold wf_tracks, small_tracks in *. rewrite forallb_forall in Hwf, Hsm.
  specialize (Hwf _ Ht). specialize (Hsm _ Ht). unfold wf_track in Hwf. apply andb_true_iff in Hwf.
  apply (intervals_tiles syncTs sps t ivs); try assumption; lia.
Qed.

(* sample-level corollary: fetching intervals that tile 1..N from a sample sequence of length N returns
   the sequence, each sample once, in order *)
Lemma nth_error_seq1 {A} (ss : list A) :
  map (fun k => nth_error ss (N.to_nat k - 1)) (seqN1 (lenN ss)) = map Some ss.
Proof.
  unfold seqN1, lenN. rewrite Nat2N.id, map_map.
  induction ss as [|x t IH] using rev_ind; [reflexivity|].
  rewrite app_length. cbn [length]. rewrite seq_app, !map_app. cbn [seq map].
  f_equal.
  - rewrite <- IH. apply map_ext_in. intros k Hk. apply in_seq in Hk.
    rewrite Nat2N.id. apply nth_error_app1. lia.
  - rewrite Nat2N.id. replace (1 + length t - 1)%nat with (length t) by lia.
    rewrite nth_error_app2 by lia. rewrite Nat.sub_diag. reflexivity.
Qed.

Lemma tile_conserves_samples {A} (ss : list A) ivs :
  concat (map range ivs) = seqN1 (lenN ss) -> concat (map (samples_for_interval ss) ivs) = map Some ss.
Proof.
  intros Ht. unfold samples_for_interval.
  rewrite <- (nth_error_seq1 ss), <- Ht, concat_map, map_map. reflexivity.
Qed.

