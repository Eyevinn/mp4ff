(* C11SyncProofs.v — the reference track's intervals start at the chosen sync samples. *)
From V.lib Require Import Base.
From V.c11 Require Import C11Model C11SegProofs.

Lemma ceil_exact r d : d <> 0 -> ceil_div (r * d) d = r.
Proof.
  intros Hd. unfold ceil_div. rewrite N.mod_mul by exact Hd. cbn [N.eqb].
  apply N.div_mul. exact Hd.
Qed.

(* looking up the decode time of a sample with non-zero duration finds that sample *)
Lemma snat_of_gdt e : forall rem dec dt d aN lc ld,
  gdt_loop e rem dec = Ok (dt, d) -> d <> 0 ->
  snat_loop e dt dec aN lc ld = Ok (aN + rem + 1).
Proof.
  induction e as [|[c d0] t IH]; intros rem dec dt d aN lc ld H Hd; cbn [gdt_loop] in H; [discriminate|].
  cbn [snat_loop]. destruct (c <=? rem) eqn:E.
  - pose proof (gdt_loop_ge _ _ _ _ _ H) as Hge.
    assert (Hlt : (dt <? dec + c * d0) = false) by lia. rewrite Hlt.
    rewrite (N.mul_comm d0 c). rewrite (IH _ _ _ _ (aN + c) c d0 H Hd). f_equal. lia.
  - inversion H; subst.
    assert (Hlt : (dec + rem * d <? dec + c * d) = true) by nia. rewrite Hlt.
    replace (dec + rem * d - dec) with (rem * d) by lia.
    rewrite ceil_exact by exact Hd. reflexivity.
Qed.

Lemma snat_of_decode_time e nr dt d :
  get_decode_time e nr = Ok (dt, d) -> d <> 0 -> get_sample_nr_at_time e dt = Ok nr.
Proof.
  unfold get_decode_time, get_sample_nr_at_time. intros H Hd.
  destruct (nr =? 0) eqn:E; [discriminate|].
  destruct e as [|p e']; [cbn [gdt_loop] in H; discriminate|].
  rewrite (snat_of_gdt _ _ _ _ _ 0 0 1 H Hd). f_equal. lia.
Qed.

(* every chosen sync point is an stss entry and carries that sample's decode time *)
Lemma starts_loop_sound st ct step : forall stss next sps,
  starts_loop st ct step next stss = Ok sps ->
  Forall (fun sp => In (sp_nr sp) stss /\ exists d, get_decode_time st (sp_nr sp) = Ok (sp_dts sp, d)) sps.
Proof.
  induction stss as [|nr t IH]; intros next sps H; cbn [starts_loop] in H.
  - inversion H; subst. constructor.
  - apply rbind_ok in H. destruct H as ([dt d] & Hg & H). cbn [fst] in H.
    apply rbind_ok in H. destruct H as (pres & _ & H).
    destruct (Z.of_N next <=? pres)%Z.
    + apply rbind_ok in H. destruct H as (r & Hr & H). inversion H; subst.
      constructor.
      * cbn [sp_nr sp_dts]. split; [left; reflexivity | exists d; exact Hg].
      * eapply Forall_impl; [ | eapply IH; exact Hr ].
        intros sp (Hin & Hd). split; [right; exact Hin | exact Hd].
    + eapply Forall_impl; [ | eapply IH; exact H ].
      intros sp (Hin & Hd). split; [right; exact Hin | exact Hd].
Qed.

(* the interval starts are the looked-up sample numbers *)
Lemma intervals_loop_starts trk last : forall sps start nextStart ivs,
  t_timescale trk <> 0 ->
  Forall (fun sp => get_sample_nr_at_time (t_stts trk) (sp_dts sp) = Ok (sp_nr sp)) (tl sps) ->
  sps <> [] ->
  intervals_loop (t_timescale trk) trk last sps start nextStart = Ok ivs ->
  map fst ivs = (if nextStart =? 0 then start else nextStart) :: map sp_nr (tl sps).
Proof.
  induction sps as [|sp rest IH]; intros start nextStart ivs Hts Hall Hne H; [congruence|].
  cbn [intervals_loop] in H. destruct rest as [|sp2 rest'].
  - inversion H; subst. reflexivity.
  - destruct (t_timescale trk =? 0) eqn:E0; [lia|].
    apply rbind_ok in H. destruct H as (n & Hn & H).
    apply rbind_ok in H. destruct H as (r & Hr & H). inversion H; subst ivs. clear H.
    cbn [tl] in Hall. inversion Hall as [|? ? Hsp2 Hrest]; subst.
    rewrite N.div_mul in Hn by exact Hts. rewrite Hsp2 in Hn. inversion Hn; subst n.
    cbn [map fst tl]. f_equal.
    rewrite (IH _ _ _ Hts Hrest ltac:(discriminate) Hr).
    assert (Hnz : (sp_nr sp2 =? 0) = false).
    { apply snat_ge1 in Hsp2. lia. }
    rewrite Hnz. reflexivity.
Qed.

Definition expected_starts (sps : list sync_point) : list N :=
  match sps with [] => [] | _ :: r => 1 :: map sp_nr r end.

Lemma video_starts_sync ts d rt syncTs sps ivs stss :
  first_video ts = Some rt -> t_stss rt = Some stss ->
  get_segment_starts ts d = Ok (syncTs, sps) ->
  get_segment_intervals syncTs sps rt = Ok ivs ->
  nonzero_dur_syncs rt sps = true ->
  map fst ivs = expected_starts sps /\
  Forall (fun sp => In (sp_nr sp) stss) sps /\
  (In 1 stss -> Forall (fun iv => In (fst iv) stss) ivs).
Proof.
  intros Hfv Hst Hs Hi Hg. unfold get_segment_starts in Hs. rewrite Hfv, Hst in Hs.
  apply rbind_ok in Hs. destruct Hs as (sps' & Hl & Hs). inversion Hs; subst syncTs sps'. clear Hs.
  pose proof (starts_loop_sound _ _ _ _ _ _ Hl) as Hsound.
  assert (Hin : Forall (fun sp => In (sp_nr sp) stss) sps).
  { eapply Forall_impl; [ | exact Hsound ]. intros sp [H _]. exact H. }
  assert (Hstarts : map fst ivs = expected_starts sps).
  { destruct sps as [|sp0 rest].
    - unfold get_segment_intervals in Hi. cbn [intervals_loop] in Hi. inversion Hi; subst. reflexivity.
    - destruct rest as [|sp1 rest'].
      + unfold get_segment_intervals in Hi. cbn [intervals_loop N.eqb] in Hi. inversion Hi; subst. reflexivity.
      + assert (Hts : t_timescale rt <> 0).
        { intros E0. unfold get_segment_intervals in Hi. cbn [intervals_loop] in Hi.
          rewrite E0 in Hi. cbn [N.eqb] in Hi. discriminate. }
        unfold get_segment_intervals in Hi.
        rewrite (intervals_loop_starts rt (t_nsamples rt) (sp0 :: sp1 :: rest') 1 0 ivs
                   Hts); [reflexivity | | discriminate | exact Hi].
        cbn [tl]. unfold nonzero_dur_syncs in Hg. cbn [tl] in Hg. rewrite forallb_forall in Hg.
        inversion Hsound as [|? ? _ Hs1]; subst.
        rewrite Forall_forall in Hs1 |- *. intros sp Hsp.
        destruct (Hs1 sp Hsp) as (_ & dd & Hd). specialize (Hg sp Hsp). rewrite Hd in Hg.
        eapply snat_of_decode_time; [exact Hd|]. intros ->. discriminate. }
  split; [exact Hstarts | split; [exact Hin|]].
  intros H1. rewrite Forall_forall. intros iv Hiv.
  apply (in_map fst) in Hiv. rewrite Hstarts in Hiv.
  destruct sps as [|sp0 rest]; cbn [expected_starts] in Hiv; [contradiction|].
  destruct Hiv as [<- | Hiv]; [exact H1|].
  apply in_map_iff in Hiv. destruct Hiv as (sp & <- & Hsp).
  rewrite Forall_forall in Hin. apply Hin. right. exact Hsp.
Qed.

