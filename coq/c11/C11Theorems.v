(* C11Theorems.v — the property theorems of C11 and nothing else.  Each is closed by `exact <lemma>` or by the few
   lines that derive it from the more general lemmas of the proof files, and followed by Print Assumptions (audited
   by ./check on every run). *)
From V.lib Require Import Base.
From V.c11 Require Import C11Model C11SegProofs C11SyncProofs C11FragProofs.

(* ---- segmenter (examples/segmenter, text after the fix commit) ----
   For every progressive file (any number of tracks, any tables), every target duration: if the tool
   gets as far as writing (segment_plan = Ok: no panic, no error return), then for EVERY track the
   sample numbers visited by the writers, segment after segment, are exactly 1, 2, ..., N. *)
Theorem C11_intervals_tile : forall (ts : list track) (d : N) (ivss : list (list (N * N))),
  wf_tracks ts = true -> small_tracks ts = true ->
  segment_plan ts d = Ok ivss ->
  Forall2 (fun t ivs => concat (map range ivs) = seqN1 (t_nsamples t)) ts ivss.
Proof.
  intros ts d ivss Hwf Hsm H. eapply Forall2_impl_in; [|exact (plan_tiles ts d ivss Hwf Hsm H)].
  intros t ivs _. apply tiles_seqN1.
Qed.
Print Assumptions C11_intervals_tile.

(* the same at the level of samples: whatever the per-track sample sequence ss is (bytes, duration,
   flags, composition offset, decode time: any type A), fetching the planned intervals returns every
   sample exactly once, in order, nothing dropped at the end *)
Theorem C11_segmenter_conserves : forall (A : Type) (ts : list track) (d : N) (ivss : list (list (N * N))),
  wf_tracks ts = true -> small_tracks ts = true ->
  segment_plan ts d = Ok ivss ->
  Forall2 (fun t ivs => forall ss : list A, lenN ss = t_nsamples t ->
             concat (map (samples_for_interval ss) ivs) = map Some ss) ts ivss.
Proof.
  intros A ts d ivss Hwf Hsm H. eapply Forall2_impl_in; [|exact (C11_intervals_tile ts d ivss Hwf Hsm H)].
  intros t ivs _ Ht ss Hlen. apply tile_conserves_samples. rewrite Hlen. exact Ht.
Qed.
Print Assumptions C11_segmenter_conserves.

(* the hypotheses are satisfiable by a non-trivial file: video 6 samples (sync 1, 3, 5) + audio 9 *)
Definition ex_video : track := mkTrack true 1000 6 [(6, 40)] (Some [1; 3; 5]) (Some [(1, 40%Z); (5, 0%Z)]).
Definition ex_audio : track := mkTrack false 48000 9 [(8, 1024); (1, 512)] None None.
Example C11_plan_example :
  wf_tracks [ex_video; ex_audio] = true /\ small_tracks [ex_video; ex_audio] = true /\
  segment_plan [ex_video; ex_audio] 80 = Ok [[(1, 2); (3, 4); (5, 6)]; [(1, 4); (5, 8); (9, 9)]].
Proof. vm_compute. repeat split. Qed.

(* ---- the text of the pinned tree (endSampleNr = totNrSamples - 1) loses the last sample ---- *)
Theorem C11_last_sample_dropped_refuted : exists (ts : list track) (d : N) (ivss : list (list (N * N))),
  wf_tracks ts = true /\ small_tracks ts = true /\
  segment_plan_pinned ts d = Ok ivss /\
  ~ Forall2 (fun t ivs => concat (map range ivs) = seqN1 (t_nsamples t)) ts ivss.
Proof.
  exists [mkTrack true 1000 3 [(3, 40)] (Some [1]) None], 1000, [[(1, 2)]].
  repeat split; try (vm_compute; reflexivity).
  intros F. inversion F as [|? ? ? ? Hh _]; subst. vm_compute in Hh. discriminate.
Qed.
Print Assumptions C11_last_sample_dropped_refuted.

(* ---- the reference (first video) track's segments start at the chosen sync samples ----
   guard: the chosen sync samples after the first have non-zero duration (see the _refuted statement) *)
Theorem C11_video_starts_sync :
  forall (ts : list track) (d : N) (rt : track) (syncTs : N) (sps : list sync_point)
         (ivs : list (N * N)) (stss : list N),
  first_video ts = Some rt -> t_stss rt = Some stss ->
  get_segment_starts ts d = Ok (syncTs, sps) ->
  get_segment_intervals syncTs sps rt = Ok ivs ->
  nonzero_dur_syncs rt sps = true ->
  map fst ivs = expected_starts sps /\
  Forall (fun sp => In (sp_nr sp) stss) sps /\
  (In 1 stss -> Forall (fun iv => In (fst iv) stss) ivs).
Proof. exact video_starts_sync. Qed.
Print Assumptions C11_video_starts_sync.

Example C11_video_starts_sync_example :
  nonzero_dur_syncs ex_video [mkSP 1 0 40; mkSP 3 80 80; mkSP 5 160 160] = true /\
  get_segment_starts [ex_video; ex_audio] 80 = Ok (1000, [mkSP 1 0 40; mkSP 3 80 80; mkSP 5 160 160]).
Proof. vm_compute. split; reflexivity. Qed.

Theorem C11_video_starts_sync_unguarded_refuted :
  exists ts d rt syncTs sps ivs stss,
    first_video ts = Some rt /\ t_stss rt = Some stss /\ In 1 stss /\
    wf_tracks ts = true /\
    get_segment_starts ts d = Ok (syncTs, sps) /\
    get_segment_intervals syncTs sps rt = Ok ivs /\
    ~ Forall (fun iv => In (fst iv) stss) ivs.
Proof.
  pose (rt := mkTrack true 1000 3 [(1, 40); (1, 0); (1, 40)] (Some [1; 2]) None).
  exists [rt], 1, rt, 1000, [mkSP 1 0 0; mkSP 2 40 40], [(1, 2); (3, 3)], [1; 2].
  repeat split; try (vm_compute; reflexivity); try (left; reflexivity).
  intros F. inversion F as [|? ? _ F2]; subst. inversion F2 as [|? ? H3 _]; subst.
  cbn [fst] in H3. destruct H3 as [H | [H | []]]; discriminate.
Qed.
Print Assumptions C11_video_starts_sync_unguarded_refuted.

(* ---- examples/resegmenter: for every sample list and every chunk duration the tool accepts ----
   the output segments' samples concatenate to the input, and every segment after the first is
   non-empty and starts with a sync sample whose presentation time is >= d * (number of the segment
   before it), computed as the tool computes it (uint64) *)
Theorem C11_resegment_conserves : forall (d : N) (ss : list fsample) (segs : list (list fsample)),
  resegment d ss = Ok segs ->
  concat segs = ss /\
  exists first others, segs = first :: others /\ segs_start_ok d 1 others.
Proof. exact resegment_conserves. Qed.
Print Assumptions C11_resegment_conserves.

Definition ex_samples : list fsample :=
  [mkFS 0 10 0%Z 33554432 [1]; mkFS 10 10 5%Z 65536 [2; 2]; mkFS 20 10 0%Z 33554432 [3];
   mkFS 30 10 0%Z 65536 []; mkFS 40 10 0%Z 33554432 [5]].
Example C11_resegment_example :
  option_map (map (map fs_dts)) (match resegment 15 ex_samples with Ok l => Some l | _ => None end)
  = Some [[0; 10]; [20; 30]; [40]].
Proof. vm_compute. reflexivity. Qed.

(* ---- MediaSegment.Fragmentify: never fails in the split loop, conserves, no empty fragment ---- *)
Theorem C11_fragmentify_conserves : forall (duration : N) (frags : list (list fsample)),
  exists outs, fragmentify duration frags = Ok outs /\ concat outs = concat frags /\
               Forall (fun f => f <> []) outs.
Proof. exact fragmentify_conserves. Qed.
Print Assumptions C11_fragmentify_conserves.

Example C11_fragmentify_example :
  option_map (map (map fs_dts)) (match fragmentify 20 [firstn 3 ex_samples; skipn 3 ex_samples] with Ok l => Some l | _ => None end)
  = Some [[0; 10]; [20; 30]; [40]].
Proof. vm_compute. reflexivity. Qed.

(* ---- combine-segs: multiplexing single-track sample lists into one multi-track fragment ----
   for distinct new track ids, reading track id back (first traf with that id, truns in order, decode
   times from tfdt + accumulated durations) returns exactly the list that was put in *)
Theorem C11_mux_conserves : forall (ids : list N) (inputs : list (list fsample)) (id : N) (ss : list fsample),
  NoDup ids -> In (id, ss) (combine ids inputs) -> contiguous_list ss = true ->
  read_track (fo_trafs (combine_tracks ids inputs)) id = Some ss.
Proof. exact mux_conserves. Qed.
Print Assumptions C11_mux_conserves.

Example C11_mux_example :
  contiguous_list ex_samples = true /\
  read_track (fo_trafs (combine_tracks [1; 2] [ex_samples; firstn 2 ex_samples])) 2 = Some (firstn 2 ex_samples) /\
  trun_layout (combine_tracks [1; 2] [ex_samples; firstn 2 ex_samples]) = [(1, 0, 5); (2, 1, 2)].
Proof. vm_compute. repeat split. Qed.

(* the documented limitation of combine-segs (it reads its inputs with trex = nil) as a hypothesis:
   a trun whose duration/size/flags come from the trun itself or from tfhd defaults reads the same
   with and without the trex box; without the hypothesis it does not *)
Theorem C11_mux_reads_without_trex : forall (f : frag_in) (t : trun_in) (sizes : list N) (tx : trex),
  trun_indep_of_trex f t = true -> read_trun f None t sizes = read_trun f (Some tx) t sizes.
Proof. exact read_trun_indep. Qed.
Print Assumptions C11_mux_reads_without_trex.

Theorem C11_mux_needs_trex_refuted :
  exists f t sizes tx, read_trun f None t sizes <> read_trun f (Some tx) t sizes.
Proof.
  exists (mkFragIn None (Some 4) (Some 0) [mkTrunIn false true true false [mkFS 0 0 0%Z 0 [1]]]),
         (mkTrunIn false true true false [mkFS 0 0 0%Z 0 [1]]), [1], (mkTrex 1024 0 0).
  vm_compute. discriminate.
Qed.
Print Assumptions C11_mux_needs_trex_refuted.

(* ---- decode times when the written pieces are read back ----
   A fragment stores one base decode time (tfdt) and durations.  For an input whose decode times are
   contiguous (dts(k+1) = dts(k) + dur(k)) the pieces read back are exactly the input; an input with a
   decode-time gap between two fragments is NOT conserved when both sides land in one output piece. *)
Theorem C11_resegment_read_back : forall (d : N) (ss : list fsample) (segs : list (list fsample)),
  contiguous_list ss = true -> resegment d ss = Ok segs -> concat (map retime_seg segs) = ss.
Proof.
  intros d ss segs Hc H. destruct (resegment_conserves d ss segs H) as [Hcat _].
  destruct (contiguous_list_base ss Hc) as [base Hb]. rewrite <- Hcat in Hb.
  rewrite (retime_pieces segs base Hb). exact Hcat.
Qed.
Print Assumptions C11_resegment_read_back.

Theorem C11_fragmentify_read_back : forall (duration : N) (frags : list (list fsample)),
  contiguous_list (concat frags) = true ->
  exists outs, fragmentify duration frags = Ok outs /\ concat (map retime_seg outs) = concat frags.
Proof.
  intros dur frags Hc. destruct (fragmentify_conserves dur frags) as (outs & E & Hcat & _).
  exists outs. split; [exact E|].
  destruct (contiguous_list_base _ Hc) as [base Hb]. rewrite <- Hcat in Hb.
  rewrite (retime_pieces outs base Hb). exact Hcat.
Qed.
Print Assumptions C11_fragmentify_read_back.

Theorem C11_read_back_gap_refuted :
  exists d ss segs outs,
    resegment d ss = Ok segs /\ concat (map retime_seg segs) <> ss /\
    fragmentify d [firstn 2 ss; skipn 2 ss] = Ok outs /\ concat (map retime_seg outs) <> ss.
Proof.
  pose (ss := [mkFS 0 40 0%Z 33554432 []; mkFS 40 40 0%Z 65536 []; mkFS 500 40 0%Z 65536 []]).
  exists 1000, ss, [ss], [ss].
  split; [vm_compute; reflexivity|]. split; [vm_compute; discriminate|].
  split; [vm_compute; reflexivity|]. vm_compute; discriminate.
Qed.
Print Assumptions C11_read_back_gap_refuted.

(* ---- combine-segs end to end: each input is read with trex = nil (as the tool does), multiplexed, and
   read back; the result is what a reader WITH the input's trex sees, for inputs that do not rely on
   trex defaults (the limitation documented in the tool's source is exactly this hypothesis) ---- *)
Theorem C11_mux_end_to_end : forall (ids : list N) (xs : list mux_input) (id : N) (x : mux_input),
  NoDup ids -> In (id, x) (combine ids xs) ->
  trun_indep_of_trex (mi_frag x) (mi_trun x) = true ->
  contiguous_list (mux_read true x) = true ->
  read_track (fo_trafs (combine_inputs ids xs)) id = Some (mux_read true x).
Proof.
  intros ids xs id x Hnd Hin Hind Hc. unfold combine_inputs.
  assert (E : mux_read false x = mux_read true x).
  { unfold mux_read. rewrite (read_trun_indep _ _ _ (mi_trex x) Hind). reflexivity. }
  apply mux_conserves; [exact Hnd | | exact Hc].
  rewrite <- E. apply in_combine_map. exact Hin.
Qed.
Print Assumptions C11_mux_end_to_end.

Definition ex_mux_in : mux_input :=
  mkMuxIn (mkFragIn (Some 10) None (Some 65536) [])
          (mkTrunIn false true false true [mkFS 0 0 0%Z 33554432 [1]; mkFS 10 0 5%Z 0 [2; 2]]) [1; 2] (mkTrex 99 99 99).
Example C11_mux_end_to_end_example :
  trun_indep_of_trex (mi_frag ex_mux_in) (mi_trun ex_mux_in) = true /\
  contiguous_list (mux_read true ex_mux_in) = true /\
  map fs_dur (mux_read true ex_mux_in) = [10; 10] /\ map fs_flags (mux_read true ex_mux_in) = [33554432; 65536].
Proof. vm_compute. repeat split. Qed.

(* ---- Resegment on a file: every sample of every trun of every input fragment is conserved (the
   first-trun count the code keeps for bookkeeping plays no role in what is written) ---- *)
Theorem C11_resegment_file_conserves :
  forall (d : N) (frags : list (list (list fsample))) (segs : list (list fsample)),
  resegment_file d frags = Ok segs ->
  concat segs = concat (map (@concat _) frags) /\
  exists first others, segs = first :: others /\ segs_start_ok d 1 others.
Proof.
  intros d frags segs.
  unfold resegment_file, in_samples. apply resegment_conserves.
Qed.
Print Assumptions C11_resegment_file_conserves.

(* Composition with C09 (sample tables = naive expansion) and C05 (fragment add-history -> encode -> decode ->
   GetFullSamples = added samples).  The names of C09Model/C05Model shadow some of C11Model's from here on
   (range, trex, fs_dts, t_stss ...): C11Model's are written qualified below. *)
From V.c09 Require Import C09Model C09Spec.
From V.c05 Require Import C05Model C05FragModel C05ReadProofs C05RoundProofs.
From V.c11 Require Import C11FetchModel C11Spec C11FetchProofs C11PipeProofs.

(* ---- (a) the segmenter's per-sample fetch = sample n of the expansion ----
   For every consistent set of sample tables (C09Spec.consistent) that point into the file (data_ok), mdat in
   memory or decoded lazily: what GetFullSamplesForInterval builds for sample number n (chunk lookup in stsc,
   chunk offset from stco/co64 plus the sizes of the chunk's earlier samples, size from stsz, decode time and
   duration from stts, composition offset from ctts, flags from stss/sdtp, bytes from mdat.Data or the
   ReadSeeker) is sample n of the naive expansion: S_full = (S_flags, S_dur, S_size, S_cto, S_decode_time, bytes at
   S_offset_of). *)
Theorem C11_fetch_full_sample : forall (f : pfile) (tb : tables),
  C09Spec.consistent tb = true -> data_ok f tb = true ->
  forall n, 1 <= n <= nsamples tb ->
  exists s, S_full f tb n = Some s /\ fetch_full_sample f tb n = Ok s.
Proof. exact fetch_full_sample_ok. Qed.
Print Assumptions C11_fetch_full_sample.

Theorem C11_fetch_interval : forall (f : pfile) (tb : tables),
  C09Spec.consistent tb = true -> data_ok f tb = true ->
  forall a b, 1 <= a -> a <= b + 1 -> b <= nsamples tb ->
  exists l, fetch_interval f tb a b = Ok l /\ map Some l = S_interval f tb a b.
Proof.
  intros f tb H Hd a b Ha Hab Hb. unfold fetch_interval, S_interval.
  destruct (b + 1 <? a) eqn:E; [lia|]. apply (fetch_loop_ok f tb H Hd), all_in_seqN; lia.
Qed.
Print Assumptions C11_fetch_interval.

(* GetSamplesForInterval (the -lazy writer): the same metadata, without decode time and bytes *)
Theorem C11_fetch_meta_interval : forall (tb : tables), C09Spec.consistent tb = true ->
  forall a b, 1 <= a -> a <= b + 1 -> b <= nsamples tb ->
  exists l, fetch_meta_interval tb a b = Ok l /\
            map Some l = map (fun n => option_map meta_sample (S_meta tb n)) (seqN a (N.to_nat (b + 1 - a))).
Proof.
  intros tb H a b Ha Hab Hb. unfold fetch_meta_interval.
  destruct (b + 1 <? a) eqn:E; [lia|]. apply (fetch_meta_loop_ok tb H), all_in_seqN; lia.
Qed.
Print Assumptions C11_fetch_meta_interval.

(* the hypotheses C05's round trip needs of the samples added to a fragment hold for every run of consecutive
   samples of the expansion: Sample.Size = len(Data), decode times consistent with the durations (no uint64 wrap) *)
Theorem C11_expansion_roundtrip_hyps : forall (f : pfile) (tb : tables),
  C09Spec.consistent tb = true -> data_ok f tb = true ->
  forall k nr l, 1 <= nr -> nr + N.of_nat k <= nsamples tb + 1 ->
  map Some l = map (S_full f tb) (seqN nr k) ->
  Forall sized_f l /\ C05RoundProofs.consistent l.
Proof.
  intros f tb H Hd k nr l H1 H2 Hl. pose proof (all_in_seqN tb nr k H1 H2) as Hin. split.
  - exact (expansion_sized f tb H Hd _ l Hin Hl).
  - exact (expansion_consistent f tb H k nr l Hin Hl).
Qed.
Print Assumptions C11_expansion_roundtrip_hyps.

(* ---- (b) makeSingleTrackSegments end to end, one track ----
   seg_track: for every interval, GetFullSamplesForInterval, (skip when empty), CreateFragment +
   AddFullSampleToTrack per sample, Fragment.Encode (optimisation on or off); read_back: DecodeFile's view of
   the written fragment at ANY file position pos0 + Fragment.GetFullSamples(trex of the track).
   For every consistent track, ANY intervals that tile 1..N: if the writer returns without error and every
   fragment stays below 2 GiB (seg_guard: int32 trun data offsets; beyond it the real code wraps, known finding
   C05-F5), then reading the segments back in order gives exactly the expansion of the input track - bytes,
   size, duration, flags, composition offset, decode time - and no segment file is empty. *)
Theorem C11_segmenter_track_end_to_end :
  forall opt (f : pfile) (tb : tables) T pos0 (tx : C05Model.trex) ivs fes,
  C09Spec.consistent tb = true -> data_ok f tb = true -> tx_track tx = T ->
  concat (map C11Model.range ivs) = seqN1 (nsamples tb) ->
  seg_track opt f tb T ivs = Ok fes ->
  Forall (fun fe => seg_guard pos0 fe = true) fes ->
  exists outs, read_all (read_back tx pos0 []) fes = Ok outs /\
               map Some (concat outs) = expansion f tb /\ Forall (fun o => o <> []) outs.
Proof.
  intros opt f tb T pos0 tx ivs fes H Hd Htx Htile Hs Hg.
  destruct (seg_track_pieces opt f tb T pos0 tx H Hd Htx ivs fes (tile_all_in tb ivs Htile) Hs Hg) as (ls & Hls & Hr).
  exact (pieces_end_to_end f tb ivs ls _ fes Htile Hls Hr).
Qed.
Print Assumptions C11_segmenter_track_end_to_end.

(* the whole tool: for every progressive file (any number of tracks with consistent tables pointing into the
   file), every target duration d: whatever plan the tool computes (segment_plan = Ok: C11_intervals_tile applies),
   every track's segments read back as that track's expansion *)
Theorem C11_segmenter_end_to_end : forall (f : pfile) (trs : list itrack) d ivss,
  Forall (fun t => C09Spec.consistent (snd t) = true /\ data_ok f (snd t) = true) trs ->
  segment_plan (map itrack_of trs) d = Ok ivss ->
  Forall2 (fun t ivs => forall opt T pos0 (tx : C05Model.trex) fes,
             tx_track tx = T -> seg_track opt f (snd t) T ivs = Ok fes ->
             Forall (fun fe => seg_guard pos0 fe = true) fes ->
             exists outs, read_all (read_back tx pos0 []) fes = Ok outs /\
                          map Some (concat outs) = expansion f (snd t) /\
                          Forall (fun o => o <> []) outs) trs ivss.
Proof.
  intros f trs d ivss Hall Hp. rewrite Forall_forall in Hall.
  eapply Forall2_impl_in; [|apply (plan_itracks trs d ivss); [apply Forall_forall; intros t Ht; apply (Hall t Ht)|exact Hp]].
  intros t ivs Hin Ht opt T pos0 tx fes Htx Hs Hg. destruct (Hall t Hin) as [Hc Hd].
  exact (C11_segmenter_track_end_to_end opt f (snd t) T pos0 tx ivs fes Hc Hd Htx (tiles_seqN1 _ _ Ht) Hs Hg).
Qed.
Print Assumptions C11_segmenter_end_to_end.

(* the hypotheses are satisfiable: a 7-sample video track (3 stts runs, ctts, 2 stsc entries over 3 chunks at file
   offsets 100/200/300, explicit sizes, stss [1;5], sdtp) in a 330-byte file, target duration 30 ms: two segments
   (samples 1-4 and 5-7), both written and read back *)
Definition ex_e2e_tb : tables :=
  mkTables [3; 1; 3] [10; 20; 5]
           (Some (mkCtts [0; 2; 7] [0%Z; (-3)%Z]))
           (mkStsc [mkEntry 1 2 1; mkEntry 3 3 5] 0 [1; 2])
           (mkStsz 0 7 [4; 5; 6; 7; 8; 9; 10])
           (Some [100; 200; 300]) None
           (Some [1; 5]) (Some [0; 16; 32; 64; 4; 8; 1]).
Definition ex_e2e_file : pfile := mkPfile (map (fun i => N.of_nat i mod 256) (seq 0 330)) 8 322 false.
Example C11_segmenter_end_to_end_example :
  C09Spec.consistent ex_e2e_tb = true /\ data_ok ex_e2e_file ex_e2e_tb = true /\
  segment_plan [itrack_of (true, 1000, ex_e2e_tb)] 30 = Ok [[(1, 4); (5, 7)]] /\
  exists fes, seg_track false ex_e2e_file ex_e2e_tb 1 [(1, 4); (5, 7)] = Ok fes /\
              forallb (seg_guard 24) fes = true /\
              option_map (map (map fs_dts))
                (match read_all (read_back (C05Model.mkTrex 1 0 0 0) 24 []) fes with Ok o => Some o | _ => None end)
              = Some [[0; 10; 20; 30]; [50; 55; 60]].
Proof.
  split; [vm_compute; reflexivity|]. split; [vm_compute; reflexivity|]. split; [vm_compute; reflexivity|].
  eexists. split; [vm_compute; reflexivity|]. split; vm_compute; reflexivity.
Qed.

(* ---- (c) Resegment and Fragmentify: statements about the DECODED output ----
   The output pieces are written as the tools write them (CreateFragment(seq, trackID), AddFullSampleToTrack for
   every sample of the piece, Fragment.Encode with optimisation on or off) and read back (decode at any position,
   GetFullSamples with the track's trex).  to_full makes an mp4.FullSample of a list-level sample (Size = len(Data),
   which holds for everything GetFullSamples returns).  For every input whose decode times are contiguous and fit
   uint64 (times_fit), fewer than 2^32 samples, every chunk duration the tool accepts: the concatenation of what
   the output segments decode to is the input sample list - bytes, size, duration, flags, composition offset,
   decode time.  Pieces without samples (only Resegment's first segment can be one, C11_resegment_conserves) are
   not read (nonempty_pieces): an empty fragment is explored by the search only. *)
From V.c11 Require Import C11ResegProofs.
Theorem C11_resegment_end_to_end :
  forall d (ss : list C11Model.fsample) segs opt T pos0 (tx : C05Model.trex) fes,
  contiguous_list ss = true -> times_fit ss -> lenN ss < 4294967296 -> tx_track tx = T ->
  resegment d ss = Ok segs ->
  Forall2 (fun seg fe => write_segment opt T (map to_full seg) = Ok fe) (nonempty_pieces segs) fes ->
  Forall (fun fe => seg_guard pos0 fe = true) fes ->
  exists outs, read_all (read_back tx pos0 []) fes = Ok outs /\ concat outs = map to_full ss.
Proof. exact resegment_end_to_end. Qed.
Print Assumptions C11_resegment_end_to_end.

Theorem C11_fragmentify_end_to_end :
  forall dur (frags : list (list C11Model.fsample)) opt T pos0 (tx : C05Model.trex),
  contiguous_list (concat frags) = true -> times_fit (concat frags) -> lenN (concat frags) < 4294967296 ->
  tx_track tx = T ->
  exists pieces, fragmentify dur frags = Ok pieces /\ Forall (fun p => p <> []) pieces /\
    forall fes, Forall2 (fun p fe => write_segment opt T (map to_full p) = Ok fe) pieces fes ->
                Forall (fun fe => seg_guard pos0 fe = true) fes ->
                exists outs, read_all (read_back tx pos0 []) fes = Ok outs /\
                             concat outs = map to_full (concat frags).
Proof. exact fragmentify_end_to_end. Qed.
Print Assumptions C11_fragmentify_end_to_end.

(* hypotheses satisfiable: the five samples of ex_samples, chunk duration 15: three pieces, written with trun
   optimisation on and read back *)
Example C11_resegment_end_to_end_example :
  contiguous_list ex_samples = true /\ times_fit ex_samples /\
  exists segs fes, resegment 15 ex_samples = Ok segs /\ nonempty_pieces segs = segs /\ length segs = 3%nat /\
    Forall2 (fun seg fe => write_segment true 7 (map to_full seg) = Ok fe) segs fes /\
    forallb (seg_guard 1000) fes = true /\
    (match read_all (read_back (C05Model.mkTrex 7 1 2 3) 1000 []) fes with Ok o => Some (concat o) | _ => None end)
    = Some (map to_full ex_samples).
Proof.
  split; [vm_compute; reflexivity|]. split; [repeat constructor|].
  eexists. eexists. split; [vm_compute; reflexivity|]. split; [reflexivity|]. split; [reflexivity|].
  split; [repeat (apply Forall2_cons; [vm_compute; reflexivity|]); apply Forall2_nil|].
  split; vm_compute; reflexivity.
Qed.

(* ---- (b, -lazy) makeSingleTrackSegmentsLazyWrite ----
   copyMediaData (containing chunks from stsc, chunk offset from co64/stco plus the sizes of the chunk's samples
   before the interval, one Seek + CopyN per chunk) writes exactly the bytes of samples a..b in sample order,
   for every consistent track pointing into the file that carries one chunk-offset box *)
From V.c11 Require Import C11CopyProofs C11LazyProofs.
Theorem C11_copy_media_data : forall (f : pfile) (tb : tables),
  C09Spec.consistent tb = true -> data_ok f tb = true -> one_offset_box tb = true ->
  forall a b, 1 <= a -> a <= b -> b <= nsamples tb ->
  copy_media_data f tb a b = Ok (S_data f tb a b).
Proof. exact copy_media_data_ok. Qed.
Print Assumptions C11_copy_media_data.

(* seg_track_lazy: per interval GetSamplesForInterval (metadata only), CreateFragment, AddSampleToTrack with the
   decode time of the interval's first sample, Fragment.Encode (moof + mdat header), copyMediaData after it.
   Reading every (fragment, copied bytes) pair back gives the expansion of the track, as in the in-memory case
   (C05_roundtrip_single_modes, metadata-only mode; the tfdt the reader starts from is shown to be the decode time
   of the interval's first sample). *)
Theorem C11_segmenter_lazy_track_end_to_end :
  forall opt (f : pfile) (tb : tables) T pos0 (tx : C05Model.trex) ivs outs,
  C09Spec.consistent tb = true -> data_ok f tb = true -> one_offset_box tb = true -> tx_track tx = T ->
  concat (map C11Model.range ivs) = seqN1 (nsamples tb) ->
  seg_track_lazy opt f tb T ivs = Ok outs ->
  Forall (fun p => lazy_guard pos0 p = true) outs ->
  exists res, read_all (fun p => read_back tx pos0 (snd p) (fst p)) outs = Ok res /\
              map Some (concat res) = expansion f tb /\ Forall (fun o => o <> []) res.
Proof.
  intros opt f tb T pos0 tx ivs outs H Hd Hone Htx Htile Hs Hg.
  destruct (seg_track_lazy_pieces opt f tb T pos0 tx H Hd Hone Htx ivs outs (tile_all_in tb ivs Htile) Hs Hg)
    as (ls & Hls & Hr).
  exact (pieces_end_to_end f tb ivs ls _ outs Htile Hls Hr).
Qed.
Print Assumptions C11_segmenter_lazy_track_end_to_end.

Theorem C11_segmenter_lazy_end_to_end : forall (f : pfile) (trs : list itrack) d ivss,
  Forall (fun t => C09Spec.consistent (snd t) = true /\ data_ok f (snd t) = true /\ one_offset_box (snd t) = true) trs ->
  segment_plan (map itrack_of trs) d = Ok ivss ->
  Forall2 (fun t ivs => forall opt T pos0 (tx : C05Model.trex) outs,
             tx_track tx = T -> seg_track_lazy opt f (snd t) T ivs = Ok outs ->
             Forall (fun p => lazy_guard pos0 p = true) outs ->
             exists res, read_all (fun p => read_back tx pos0 (snd p) (fst p)) outs = Ok res /\
                         map Some (concat res) = expansion f (snd t) /\
                         Forall (fun o => o <> []) res) trs ivss.
Proof.
  intros f trs d ivss Hall Hp. rewrite Forall_forall in Hall.
  eapply Forall2_impl_in; [|apply (plan_itracks trs d ivss); [apply Forall_forall; intros t Ht; apply (Hall t Ht)|exact Hp]].
  intros t ivs Hin Ht opt T pos0 tx outs Htx Hs Hg. destruct (Hall t Hin) as [Hc [Hd Ho]].
  exact (C11_segmenter_lazy_track_end_to_end opt f (snd t) T pos0 tx ivs outs Hc Hd Ho Htx (tiles_seqN1 _ _ Ht) Hs Hg).
Qed.
Print Assumptions C11_segmenter_lazy_end_to_end.

(* satisfiable: the same file decoded lazily *)
Definition ex_e2e_lazy_file : pfile := mkPfile (pf_bytes ex_e2e_file) 8 322 true.
Example C11_segmenter_lazy_end_to_end_example :
  data_ok ex_e2e_lazy_file ex_e2e_tb = true /\ one_offset_box ex_e2e_tb = true /\
  exists outs, seg_track_lazy false ex_e2e_lazy_file ex_e2e_tb 1 [(1, 4); (5, 7)] = Ok outs /\
               forallb (lazy_guard 24) outs = true /\
               map (fun p => lenN (snd p)) outs = [22; 27] /\
               option_map (map (map fs_dts))
                 (match read_all (fun p => read_back (C05Model.mkTrex 1 0 0 0) 24 (snd p) (fst p)) outs
                  with Ok o => Some o | _ => None end)
               = Some [[0; 10; 20; 30]; [50; 55; 60]].
Proof.
  split; [vm_compute; reflexivity|]. split; [reflexivity|].
  eexists. split; [vm_compute; reflexivity|]. split; [vm_compute; reflexivity|]. split; vm_compute; reflexivity.
Qed.

(* ---- (b, -m) makeMultiTrackSegments ----
   mux_segments: for every segment number, CreateMultiTrackFragment(ids), then per track in order
   GetFullSamplesForInterval + AddFullSampleToTrack, Fragment.Encode.  For ANY number of tracks with pairwise
   different output ids, consistent tables pointing into the file, fewer than 2^32 samples in total, and interval
   lists of one common length that tile each track (which is what the plan gives: C11_plan_shape,
   C11_intervals_tile): reading ANY of the tracks back from the multiplexed segments, in order, gives exactly that
   track's expansion (C05_roundtrip in its multi-track form: runs of different tracks in one mdat). *)
From V.c11 Require Import C11MuxProofs.
Theorem C11_segmenter_mux_end_to_end : forall opt (f : pfile) pos0 (trs : list strack) nsegs fes,
  NoDup (map st_id trs) -> total_samples trs < 4294967296 -> (1 <= nsegs)%nat ->
  Forall (fun t => C09Spec.consistent (st_tb t) = true /\ data_ok f (st_tb t) = true /\
                   length (st_ivs t) = nsegs /\
                   concat (map C11Model.range (st_ivs t)) = seqN1 (nsamples (st_tb t))) trs ->
  mux_segments opt f trs nsegs = Ok fes ->
  Forall (fun fe => seg_guard pos0 fe = true) fes ->
  Forall (fun t => forall tx : C05Model.trex, tx_track tx = st_id t ->
            exists outs, read_all (read_back tx pos0 []) fes = Ok outs /\
                         map Some (concat outs) = expansion f (st_tb t)) trs.
Proof. exact mux_end_to_end_all. Qed.
Print Assumptions C11_segmenter_mux_end_to_end.

Theorem C11_plan_shape : forall (ts : list C11Model.track) d ivss, segment_plan ts d = Ok ivss ->
  exists nsegs, (1 <= nsegs)%nat /\ Forall (fun ivs => length ivs = nsegs) ivss.
Proof.
  intros ts d ivss H. destruct (plan_ok ts d ivss H) as (syncTs & sps & _ & Hne & Hiv).
  exists (length sps). split; [destruct sps; [congruence|cbn [length]; lia]|].
  clear - Hiv. induction Hiv as [|t ivs ts ivss Hi _ IH]; constructor; [|exact IH].
  apply (intervals_loop_length _ _ _ _ _ _ _ Hi).
Qed.
Print Assumptions C11_plan_shape.

(* satisfiable: the video track above + a 5-sample audio track in the same file, multiplexed into two segments *)
Definition ex_e2e_audio_tb : tables :=
  mkTables [5] [1024] None (mkStsc [mkEntry 1 5 1] 1 []) (mkStsz 2 5 []) (Some [60]) None None None.
Example C11_segmenter_mux_end_to_end_example :
  C09Spec.consistent ex_e2e_audio_tb = true /\ data_ok ex_e2e_file ex_e2e_audio_tb = true /\
  segment_plan [itrack_of (true, 1000, ex_e2e_tb); itrack_of (false, 48000, ex_e2e_audio_tb)] 30
    = Ok [[(1, 4); (5, 7)]; [(1, 3); (4, 5)]] /\
  let trs := [(ex_e2e_tb, 1, [(1, 4); (5, 7)]); (ex_e2e_audio_tb, 2, [(1, 3); (4, 5)])] in
  exists fes, mux_segments false ex_e2e_file trs 2 = Ok fes /\ forallb (seg_guard 24) fes = true /\
    option_map (map (map fs_dts))
      (match read_all (read_back (C05Model.mkTrex 2 0 0 0) 24 []) fes with Ok o => Some o | _ => None end)
    = Some [[0; 1024; 2048]; [3072; 4096]].
Proof.
  split; [vm_compute; reflexivity|]. split; [vm_compute; reflexivity|]. split; [vm_compute; reflexivity|].
  eexists. split; [vm_compute; reflexivity|]. split; vm_compute; reflexivity.
Qed.

(* ---- no silent drop (text after fix 8eb6c19) ----
   For EVERY file and tables (also inconsistent ones, a truncated file, a lazily decoded mdat): if the writer
   returns without error, every planned interval of every track was fetched completely (as many full samples as
   the interval has sample numbers).  The pinned text tested len(fullSamples) == 0 before err != nil: a failed
   fetch (a read error with -m -lazy) was taken for "no more samples" and the tool went on (refuted below;
   reproduced on the built tool: a truncated prog_8s.mp4 gives empty segments and exit code 0). *)
Theorem C11_segmenter_fetches_all : forall opt (f : pfile) (tb : tables) T ivs fes,
  seg_track opt f tb T ivs = Ok fes -> Forall (fetched f tb) ivs.
Proof. exact seg_track_fetched. Qed.
Print Assumptions C11_segmenter_fetches_all.

Theorem C11_segmenter_mux_fetches_all : forall opt (f : pfile) (trs : list strack) nsegs fes,
  mux_segments opt f trs nsegs = Ok fes ->
  forall k, (k < nsegs)%nat ->
  Forall (fun t => exists iv, nth_error (st_ivs t) k = Some iv /\ fetched f (st_tb t) iv) trs.
Proof.
  intros opt f trs nsegs fes H k Hk. apply (mux_loop_fetched _ _ _ _ _ _ H). apply in_seq. lia.
Qed.
Print Assumptions C11_segmenter_mux_fetches_all.

Definition ex_truncated_file : pfile := mkPfile (firstn 250 (pf_bytes ex_e2e_file)) 8 322 true.
Theorem C11_fetch_error_swallowed_refuted :
  exists (f : pfile) (tb : tables) (iv : N * N),
    C09Spec.consistent tb = true /\ fst iv <= snd iv /\
    fetch_interval f tb (fst iv) (snd iv) = Err /\ fetch_or_skip_pinned f tb iv = Ok [].
Proof.
  exists ex_truncated_file, ex_e2e_tb, (5, 7). split; [vm_compute; reflexivity|]. split; [cbn; lia|].
  split; vm_compute; reflexivity.
Qed.
Print Assumptions C11_fetch_error_swallowed_refuted.

(* ---- (b) in total form: hypotheses on the INPUT only ----
   CreateFragment + AddFullSampleToTrack never fail on the fragment's own track id, Fragment.Encode (optimisation on
   or off) succeeds for a non-empty one-trun fragment, and the written fragment satisfies the round trip's guard,
   provided 16 bytes of trun per sample + the samples' bytes + 200 stay below 2 GiB. *)
From V.c11 Require Import C11TotalProofs.
Theorem C11_write_segment_total : forall opt T (l : list fullsample) pos0,
  l <> [] -> 16 * lenN l + lenN (flat_map fs_data l) + 200 < 2147483648 -> pos0 < 4611686018427387904 ->
  exists fe, write_segment opt T l = Ok fe /\ seg_guard pos0 fe = true.
Proof. exact write_segment_total. Qed.
Print Assumptions C11_write_segment_total.

(* For every progressive file whose tracks have consistent tables pointing into the file, every target duration:
   if the tool computes a plan at all (segment_plan = Ok: a video track with stss, sync points found, no lookup
   error) and every planned segment is smaller than 2 GiB (seg_small, a condition on the tables), then for EVERY track
   the in-memory writer returns without error, and reading the written segments back in order (decode at any
   position, GetFullSamples with the track's trex) gives exactly the track's expansion; no segment is empty. *)
Theorem C11_segmenter_total : forall (f : pfile) (trs : list itrack) d ivss,
  Forall (fun t => C09Spec.consistent (snd t) = true /\ data_ok f (snd t) = true) trs ->
  segment_plan (map itrack_of trs) d = Ok ivss ->
  Forall2 (fun t ivs => forall opt T pos0 (tx : C05Model.trex),
             tx_track tx = T -> pos0 < 4611686018427387904 -> forallb (seg_small (snd t)) ivs = true ->
             exists fes outs, seg_track opt f (snd t) T ivs = Ok fes /\
                              read_all (read_back tx pos0 []) fes = Ok outs /\
                              map Some (concat outs) = expansion f (snd t) /\
                              Forall (fun o => o <> []) outs) trs ivss.
Proof.
  intros f trs d ivss Hall Hp. rewrite Forall_forall in Hall.
  eapply Forall2_impl_in; [|apply (plan_itracks trs d ivss); [apply Forall_forall; intros t Ht; apply (Hall t Ht)|exact Hp]].
  intros t ivs Hin Ht opt T pos0 tx Htx Hpos Hsmall. destruct (Hall t Hin) as [Hc Hd].
  pose proof (tiles_seqN1 _ _ Ht) as Htile.
  destruct (seg_track_total opt f (snd t) T pos0 Hc Hd Hpos ivs (tile_all_in _ _ Htile) (tiles_ordered _ _ _ Ht) Hsmall)
    as [fes [Hs Hg]].
  destruct (C11_segmenter_track_end_to_end opt f (snd t) T pos0 tx ivs fes Hc Hd Htx Htile Hs Hg) as [outs Ho].
  exists fes, outs. split; [exact Hs|exact Ho].
Qed.
Print Assumptions C11_segmenter_total.

Example C11_segmenter_total_example : forallb (seg_small ex_e2e_tb) [(1, 4); (5, 7)] = true.
Proof. vm_compute. reflexivity. Qed.

(* ---- (c) in total form: for every contiguous input below 2 GiB the pieces ARE written without error and
   decode to the input (Resegment: the pieces that hold samples; Fragmentify: all pieces) ---- *)
Theorem C11_resegment_total :
  forall d (ss : list C11Model.fsample) segs opt T pos0 (tx : C05Model.trex),
  contiguous_list ss = true -> times_fit ss -> 16 * lenN ss + bytes_of ss + 200 < 2147483648 ->
  tx_track tx = T -> pos0 < 4611686018427387904 ->
  resegment d ss = Ok segs ->
  exists fes outs,
    Forall2 (fun seg fe => write_segment opt T (map to_full seg) = Ok fe) (nonempty_pieces segs) fes /\
    read_all (read_back tx pos0 []) fes = Ok outs /\ concat outs = map to_full ss.
Proof.
  intros d ss segs opt T pos0 tx Hc Hf Hb Htx Hpos Hr. destruct (resegment_conserves d ss segs Hr) as [Hcat _].
  destruct (write_pieces_total opt T pos0 Hpos segs ltac:(rewrite Hcat; exact Hb)) as [fes [Hw Hg]].
  destruct (resegment_end_to_end d ss segs opt T pos0 tx fes Hc Hf ltac:(lia) Htx Hr Hw Hg) as [outs [Hro Hco]].
  exists fes, outs. repeat split; assumption.
Qed.
Print Assumptions C11_resegment_total.

Theorem C11_fragmentify_total :
  forall dur (frags : list (list C11Model.fsample)) opt T pos0 (tx : C05Model.trex),
  contiguous_list (concat frags) = true -> times_fit (concat frags) ->
  16 * lenN (concat frags) + bytes_of (concat frags) + 200 < 2147483648 ->
  tx_track tx = T -> pos0 < 4611686018427387904 ->
  exists pieces fes outs, fragmentify dur frags = Ok pieces /\
    Forall2 (fun p fe => write_segment opt T (map to_full p) = Ok fe) pieces fes /\
    read_all (read_back tx pos0 []) fes = Ok outs /\ concat outs = map to_full (concat frags).
Proof.
  intros dur frags opt T pos0 tx Hc Hf Hb Htx Hpos.
  destruct (fragmentify_end_to_end dur frags opt T pos0 tx Hc Hf ltac:(lia) Htx) as (pieces & E & Hne & Hall).
  destruct (fragmentify_conserves dur frags) as (pieces' & E' & Hcat & _). rewrite E in E'. injection E' as <-.
  destruct (write_pieces_total opt T pos0 Hpos pieces ltac:(rewrite Hcat; exact Hb)) as [fes [Hw Hg]].
  rewrite (nonempty_pieces_id pieces Hne) in Hw.
  destruct (Hall fes Hw Hg) as [outs [Hro Hco]].
  exists pieces, fes, outs. repeat split; assumption.
Qed.
Print Assumptions C11_fragmentify_total.

Example C11_resegment_total_example : 16 * lenN ex_samples + bytes_of ex_samples + 200 < 2147483648.
Proof. vm_compute. reflexivity. Qed.

(* the -lazy writer in total form: the same statement as C11_segmenter_total for makeSingleTrackSegmentsLazyWrite
   (AddSampleToTrack never fails on the own id, Encode of the metadata-only fragment succeeds, copyMediaData
   succeeds: C11_copy_media_data) *)
Theorem C11_segmenter_lazy_total : forall (f : pfile) (trs : list itrack) d ivss,
  Forall (fun t => C09Spec.consistent (snd t) = true /\ data_ok f (snd t) = true /\ one_offset_box (snd t) = true) trs ->
  segment_plan (map itrack_of trs) d = Ok ivss ->
  Forall2 (fun t ivs => forall opt T pos0 (tx : C05Model.trex),
             tx_track tx = T -> pos0 < 4611686018427387904 -> forallb (seg_small (snd t)) ivs = true ->
             exists outs res, seg_track_lazy opt f (snd t) T ivs = Ok outs /\
                              read_all (fun p => read_back tx pos0 (snd p) (fst p)) outs = Ok res /\
                              map Some (concat res) = expansion f (snd t) /\
                              Forall (fun o => o <> []) res) trs ivss.
Proof.
  intros f trs d ivss Hall Hp. rewrite Forall_forall in Hall.
  eapply Forall2_impl_in; [|apply (plan_itracks trs d ivss); [apply Forall_forall; intros t Ht; apply (Hall t Ht)|exact Hp]].
  intros t ivs Hin Ht opt T pos0 tx Htx Hpos Hsmall. destruct (Hall t Hin) as [Hc [Hd Ho]].
  pose proof (tiles_seqN1 _ _ Ht) as Htile.
  destruct (seg_track_lazy_total opt f (snd t) T pos0 Hc Hd Ho Hpos ivs (tile_all_in _ _ Htile) (tiles_ordered _ _ _ Ht) Hsmall)
    as [outs [Hs Hg]].
  destruct (C11_segmenter_lazy_track_end_to_end opt f (snd t) T pos0 tx ivs outs Hc Hd Ho Htx Htile Hs Hg) as [res Hr].
  exists outs, res. split; [exact Hs|exact Hr].
Qed.
Print Assumptions C11_segmenter_lazy_total.

(* the EMPTY fragment: CreateFragment + Encode without trun optimisation (the resegmenter's configuration) succeeds
   and every reader gets no samples from it; so Resegment's total statement covers EVERY output segment, the
   possibly empty first one included *)
Theorem C11_write_segment_empty : forall T pos0, pos0 < 4611686018427387904 ->
  exists fe, write_segment false T [] = Ok fe /\ forall tx : C05Model.trex, read_back tx pos0 [] fe = Ok [].
Proof. exact write_segment_empty. Qed.
Print Assumptions C11_write_segment_empty.

Theorem C11_resegment_total_all :
  forall d (ss : list C11Model.fsample) segs T pos0 (tx : C05Model.trex),
  contiguous_list ss = true -> times_fit ss -> 16 * lenN ss + bytes_of ss + 200 < 2147483648 ->
  tx_track tx = T -> pos0 < 4611686018427387904 ->
  resegment d ss = Ok segs ->
  exists fes outs,
    Forall2 (fun seg fe => write_segment false T (map to_full seg) = Ok fe) segs fes /\
    read_all (read_back tx pos0 []) fes = Ok outs /\ concat outs = map to_full ss.
Proof.
  intros d ss segs T pos0 tx Hc Hf Hb Htx Hpos Hr.
  destruct (C11_resegment_total d ss segs false T pos0 tx Hc Hf Hb Htx Hpos Hr) as [fes' [outs' [Hw [Hro Hco]]]].
  destruct (insert_empties T pos0 tx Hpos segs fes' outs' Hw Hro) as [fes [outs [H1 [H2 H3]]]].
  exists fes, outs. split; [exact H1|]. split; [exact H2|]. rewrite H3. exact Hco.
Qed.
Print Assumptions C11_resegment_total_all.

(* the multiplexed writer in total form (no trun optimisation, as the tool runs: NewMediaSegment sets OptimizeNone):
   for tracks with pairwise different ids, consistent tables pointing into the file, interval lists of one common
   length that tile each track in order, and every segment below 2 GiB (mux_seg_small: a condition on the tables),
   makeMultiTrackSegments' loop returns without error and every track reads back as its expansion *)
From V.c11 Require Import C11MuxTotalProofs.
Theorem C11_segmenter_mux_total : forall (f : pfile) pos0 (trs : list strack) nsegs,
  NoDup (map st_id trs) -> trs <> [] -> total_samples trs < 4294967296 -> (1 <= nsegs)%nat ->
  pos0 < 4611686018427387904 ->
  Forall (fun t => C09Spec.consistent (st_tb t) = true /\ data_ok f (st_tb t) = true /\
                   length (st_ivs t) = nsegs /\
                   concat (map C11Model.range (st_ivs t)) = seqN1 (nsamples (st_tb t)) /\
                   Forall (fun iv => fst iv <= snd iv + 1) (st_ivs t)) trs ->
  forallb (mux_seg_small trs) (seq 0 nsegs) = true ->
  exists fes, mux_segments false f trs nsegs = Ok fes /\
    Forall (fun t => forall tx : C05Model.trex, tx_track tx = st_id t ->
              exists outs, read_all (read_back tx pos0 []) fes = Ok outs /\
                           map Some (concat outs) = expansion f (st_tb t)) trs.
Proof. exact (mux_total false). Qed.
Print Assumptions C11_segmenter_mux_total.

(* the plan's intervals are ordered (start <= end + 1), the remaining hypothesis of the total forms *)
Theorem C11_plan_ordered : forall (ts : list C11Model.track) d ivss,
  wf_tracks ts = true -> small_tracks ts = true ->
  segment_plan ts d = Ok ivss -> Forall (Forall (fun iv => fst iv <= snd iv + 1)) ivss.
Proof.
  intros ts d ivss Hwf Hsm H. pose proof (plan_tiles ts d ivss Hwf Hsm H) as Ht. clear Hwf Hsm H.
  induction Ht as [|t ivs ts' ivss' Hi _ IH]; constructor; [exact (tiles_ordered _ _ _ Hi)|exact IH].
Qed.
Print Assumptions C11_plan_ordered.

Example C11_segmenter_mux_total_example :
  forallb (mux_seg_small [(ex_e2e_tb, 1, [(1, 4); (5, 7)]); (ex_e2e_audio_tb, 2, [(1, 3); (4, 5)])]) (seq 0 2) = true.
Proof. vm_compute. reflexivity. Qed.

(* ---- the two views of a trak agree ----
   The plan is computed by C11Model's stts/ctts queries on run lists (itrack_of), the fetch by C09Model's on the Go
   structs; both transcribe the same Go functions.  On consistent tables they return the same results for every
   argument the plan uses: decode time + duration of any sample number, composition offset of every sample,
   the sample number at any uint64 time. *)
From V.c11 Require Import C11BridgeProofs.
Theorem C11_itrack_decode_time : forall tb, C09Spec.consistent tb = true -> forall n,
  C11Model.get_decode_time (C11Model.t_stts (itrack_of (true, 1, tb))) n
  = stts_get_decode_time (t_stts_count tb) (t_stts_delta tb) n.
Proof. exact get_decode_time_bridge. Qed.
Print Assumptions C11_itrack_decode_time.

Theorem C11_itrack_cto : forall tb c, C09Spec.consistent tb = true -> C09Model.t_ctts tb = Some c ->
  forall n, 1 <= n <= nsamples tb ->
  C11Model.get_cto (combine (diffs (ct_end c)) (ct_off c)) n = ctts_get_cto c n.
Proof. exact get_cto_bridge. Qed.
Print Assumptions C11_itrack_cto.

Theorem C11_itrack_sample_nr_at_time : forall tb, C09Spec.consistent tb = true ->
  forall t, t < 18446744073709551616 ->
  C11Model.get_sample_nr_at_time (C11Model.t_stts (itrack_of (true, 1, tb))) t
  = stts_get_sample_nr_at_time (t_stts_count tb) (t_stts_delta tb) t.
Proof. exact get_sample_nr_at_time_bridge. Qed.
Print Assumptions C11_itrack_sample_nr_at_time.

(* ---- combine-segs end to end at the decoded level (examples/combine-segs/main.go) ----
   Inputs: any number k >= 1 of decoded single-track media files, each with the trex of its own init segment; output
   track ids pairwise different, one per file.  Hypotheses on the INPUT only: every file is what the tool accepts (one
   segment, one fragment, one traf: single_frag), the trex names the traf's track, sizes are uint32 and tfdt uint64
   (din_wf, what DecodeFile guarantees), a reader with the init segment can read the file (read_input = Ok l), the
   whole input stays below 2 GiB (int32 trun data offsets, C05-F5), and the guard of the property text: NO trun relies
   on trex defaults (no_trex_reliance; any mixture of trun / tfhd flag usage, any number of truns, any base-data-offset
   mode).  Then combineMediaSegments + MediaSegment.Encode DO return without error, and reading track ids[i] of the
   decoded output with the combined init's trex (whatever defaults dd ds df it carries) returns exactly the samples a
   reader of input i saw: bytes, size, duration, flags, composition offset and decode time, in order, none dropped. *)
From V.c11 Require Import C11CombModel C11CombProofs.
Theorem C11_combine_end_to_end : forall (ids : list N) (ins : list cinput) (ls : list (list C05Model.fullsample)) pos0,
  NoDup ids -> ins <> [] -> length ids = length ins ->
  Forall input_ok ins ->
  Forall2 (fun x l => read_input (snd x) (fst x) = Ok l) ins ls ->
  64 * fulls_count ls + fulls_bytes ls + 40 * lenN ids + 200 < 2147483648 -> pos0 < 4611686018427387904 ->
  exists fe, combine_media ids (map fst ins) = Ok fe /\
             Forall2 (fun T l => forall dd ds df, read_output T dd ds df pos0 fe = Ok l) ids ls.
Proof. exact combine_end_to_end. Qed.
Print Assumptions C11_combine_end_to_end.

(* the guard is stated exactly: a trun satisfies trun_indep iff AddSampleDefaultValues gives the same samples with
   every trex as with trex = nil (the tool's call) *)
Theorem C11_combine_guard_exact : forall h r,
  trun_indep h r = true <-> (forall tx, resolve h (Some tx) r = resolve h None r).
Proof. intros h r. split; [intros H tx; exact (trun_indep_resolve h r tx H)|exact (trun_indep_exact h r)]. Qed.
Print Assumptions C11_combine_guard_exact.

(* C05's round-trip hypotheses hold of EVERY decoded input that reads without error: Size = len(Data) and decode
   times consistent with the durations (so they are not assumptions of C11_combine_end_to_end) *)
Theorem C11_combine_read_hyps : forall d tx l,
  no_trex_reliance d = true -> din_wf d = true -> tx_track tx = din_track d ->
  get_full_samples d (Some tx) = Ok l ->
  get_full_samples d None = Ok l /\ Forall C05ReadProofs.sized_f l /\ C05RoundProofs.consistent l.
Proof. exact read_guarded. Qed.
Print Assumptions C11_combine_read_hyps.

(* without the guard the statement is false (all other hypotheses hold): the trun has no duration flag, the tfhd no
   default duration, the init's trex says 10; the tool writes durations 0 and decode times 100, 100 instead of 100, 110.
   Replayed on the built tool: search class combine-segs-trex/..., harness witness combx|...|defaults=3 *)
Theorem C11_combine_unguarded_refuted :
  exists (x : cinput) l fe,
    (exists d, single_frag (fst x) = Ok d /\ din_wf d = true /\ tx_track (snd x) = din_track d /\ no_trex_reliance d = false) /\
    read_input (snd x) (fst x) = Ok l /\ combine_media [1] [fst x] = Ok fe /\
    exists l', read_output 1 10 0 0 24 fe = Ok l' /\ l' <> l /\ map C05Model.fs_data l' = map C05Model.fs_data l.
Proof. exact combine_unguarded_refuted. Qed.
Print Assumptions C11_combine_unguarded_refuted.

(* the hypotheses are satisfiable: video with two truns (the first with first-sample-flags + tfhd default flags and
   duration, base-data-offset in the tfhd), audio with everything per sample; ids 1 and 2; conclusion computed too *)
Definition ex_comb_v : dfrag :=
  mkDfrag [mkTraf (mkTfhd 41 7 1000 0 10 0 16842752) (mkTfdt 0 500)
             [mkTrun 0 517 108 33554432 [mkSample 33554432 0 2 0; mkSample 0 0 1 0] 0;
              mkTrun 0 3841 111 0 [mkSample 16842752 12 1 3%Z] 0] 0]
          [1; 2; 3; 4] 1000 1108.
Definition ex_comb_a : dfrag :=
  mkDfrag [mkTraf (mkTfhd 131072 9 0 0 0 0 0) (mkTfdt 0 0)
             [mkTrun 0 1793 100 0 [mkSample 33554432 1024 1 0; mkSample 33554432 1024 2 0] 0] 0]
          [5; 6; 7] 24 124.
Definition ex_comb_ins : list cinput := [([[ex_comb_v]], mkTrex 7 99 99 99); ([[ex_comb_a]], mkTrex 9 5 5 5)].
Example C11_combine_end_to_end_example :
  Forall input_ok ex_comb_ins /\
  exists ls fe, Forall2 (fun x l => read_input (snd x) (fst x) = Ok l) ex_comb_ins ls /\
    64 * fulls_count ls + fulls_bytes ls + 40 * lenN [1; 2] + 200 < 2147483648 /\
    combine_media [1; 2] (map fst ex_comb_ins) = Ok fe /\
    read_output 1 0 0 0 24 fe = Ok (nth 0 ls []) /\ read_output 2 0 0 0 24 fe = Ok (nth 1 ls []) /\
    map (fun l => map C05Model.fs_dts l) ls = [[500; 510; 520]; [0; 1024]].
Proof.
  split.
  { repeat constructor; [exists ex_comb_v|exists ex_comb_a]; repeat split; reflexivity. }
  eexists. eexists. split; [constructor; [vm_compute; reflexivity|constructor; [vm_compute; reflexivity|constructor]]|].
  split; [vm_compute; reflexivity|]. split; [vm_compute; reflexivity|]. repeat split; vm_compute; reflexivity.
Qed.

(* ---- the init segments the tools write describe the same tracks (C11InitModel.v: per track id, handler, media
   timescale, sample entries, trex) ----
   Segmenter, one init per track (MakeInitSegments, text after fix 0e3bed8): WHENEVER it returns, every init carries
   the handler and timescale of its input track and exactly one sample entry, which is one of the input's, under the
   track id (1) that the media segments use, with a trex for that id. *)
From V.c11 Require Import C11InitModel C11InitProofs.
Theorem C11_segmenter_inits_never_drop : forall ts outs, seg_inits ts = Ok outs ->
  Forall2 (fun t o => exists e tk, In e (it_entries t) /\ find_trak o 1 = Some tk /\ it_hdlr tk = it_hdlr t /\
                      it_timescale tk = it_timescale t /\ it_entries tk = [e] /\
                      find_trex o (seg_track_id false 0) = Some (create_trex 1)) ts outs.
Proof. exact seg_inits_never_drop. Qed.
Print Assumptions C11_segmenter_inits_never_drop.

(* total form: video / audio tracks with one sample entry of a supported kind: the inits ARE written and describe the
   same tracks (handler, timescale, the sample entry) *)
Theorem C11_segmenter_inits_total : forall ts, forallb hdlr_ok ts = true -> forallb entry_supported ts = true ->
  exists outs, seg_inits ts = Ok outs /\
    Forall2 (fun t o => same_track t None o 1 /\ find_trex o 1 = Some (create_trex 1)) ts outs.
Proof. exact seg_inits_total. Qed.
Print Assumptions C11_segmenter_inits_total.

(* the pinned text (before 0e3bed8) wrote an init segment WITHOUT a sample entry for e.g. an av01 track, exit status 0:
   reproduced on the built tool with mp4/testdata/prog_8s.mp4 whose avc1 entry was replaced by av01 *)
Theorem C11_segmenter_init_entry_dropped_refuted : exists t o,
  hdlr_ok t = true /\ it_entries t <> [] /\ seg_inits_pinned [t] = Ok [o] /\
  exists tk, in_traks o = [tk] /\ it_entries tk = [].
Proof.
  exists (mkITrak 1 H_VIDE 90000 [mkSE K_OTHER [0; 0; 0; 16; 97; 118; 48; 49]]). eexists.
  split; [reflexivity|]. split; [discriminate|]. split; [vm_compute; reflexivity|]. eexists. split; reflexivity.
Qed.
Print Assumptions C11_segmenter_init_entry_dropped_refuted.

(* multiplexed init (MakeMuxedInitSegment): track number i of the input is described under id i+1, the id
   makeMultiTrackSegments writes into the tfhd of that track *)
Theorem C11_segmenter_mux_init_same_tracks : forall ts o, seg_mux_init ts = Ok o ->
  forall i t, nth_error ts i = Some t ->
    let T := seg_track_id true i in
    exists e tk, In e (it_entries t) /\ find_trak o T = Some tk /\ it_hdlr tk = it_hdlr t /\
                 it_timescale tk = it_timescale t /\ it_entries tk = [e] /\ find_trex o T = Some (create_trex T).
Proof. exact seg_mux_init_same. Qed.
Print Assumptions C11_segmenter_mux_init_same_tracks.

(* resegmenter: the init is passed through *)
Theorem C11_resegment_init_same : forall i, reseg_init i = i.
Proof. reflexivity. Qed.
Print Assumptions C11_resegment_init_same.

(* combine-segs (combineInitSegments): k >= 1 single-track inits whose first trex names the trak (the first input
   with exactly one trex), pairwise different new ids: the combined init IS written, and under id ids[i] it holds
   handler, timescale and sample entries of input i and a trex with input i's defaults: the trex that
   C11_combine_end_to_end's reader uses *)
Theorem C11_combine_init_same_tracks : forall ids xs,
  NoDup ids -> length ids = length xs ->
  match xs with x0 :: r => comb_in_ok true x0 && forallb (comb_in_ok false) r | [] => false end = true ->
  exists o, comb_init ids xs = Ok o /\
    forall T x, In (T, x) (combine ids xs) -> same_track (first_trak x) (first_trex x) o T.
Proof. exact comb_init_same. Qed.
Print Assumptions C11_combine_init_same_tracks.

Example C11_init_example :
  let v := mkITrak 7 H_VIDE 90000 [mkSE K_AVC [1; 2; 3]] in
  let a := mkITrak 7 H_SOUN 48000 [mkSE K_MP4A [4; 5]] in
  forallb hdlr_ok [v; a] = true /\ forallb entry_supported [v; a] = true /\
  (comb_in_ok true (mkInit [v] (Some [mkITrex 7 1 512 0 65536])) && forallb (comb_in_ok false) [mkInit [a] (Some [mkITrex 7 1 1024 9 0])]) = true /\
  comb_init [1; 2] [mkInit [v] (Some [mkITrex 7 1 512 0 65536]); mkInit [a] (Some [mkITrex 7 1 1024 9 0])]
    = Ok (mkInit [mkITrak 1 H_VIDE 90000 [mkSE K_AVC [1; 2; 3]]; mkITrak 2 H_SOUN 48000 [mkSE K_MP4A [4; 5]]]
                 (Some [mkITrex 1 1 512 0 65536; mkITrex 2 1 1024 9 0])).
Proof. vm_compute. repeat split. Qed.

(* ---- total forms WITH trun optimisation, and tracks without a sample in an interval ----
   One multi-track segment (CreateMultiTrackFragment(ids) + per track AddFullSampleToTrack of its samples, in track
   order + Fragment.Encode), EncOptimize on or off, any number of tracks, any of them (also all) without a sample:
   for pairwise different ids, Size = len(Data), decode times consistent with the durations and the input of the
   segment below 2 GiB the segment IS written (OptimizeTfhdTrun of the first traf's first trun cannot fail, no data
   offset is 0) and every track reads back exactly what was added to it (nothing for a track without samples). *)
From V.c11 Require Import C11MuxProofs C11OptTotalProofs.
Theorem C11_mux_segment_total_opt : forall opt ids (g : list (N * list C05Model.fullsample)) pos0,
  NoDup ids -> ids <> [] -> map fst g = ids ->
  Forall (fun p => Forall C05ReadProofs.sized_f (snd p) /\ C05RoundProofs.consistent (snd p)) g ->
  64 * g_count g + g_bytes g + 40 * lenN ids + 300 < 2147483648 -> pos0 < 4611686018427387904 ->
  exists fe, write_mux_segment opt ids g = Ok fe /\
    forall tx : C05Model.trex, read_back tx pos0 [] fe = Ok (pick_track (tx_track tx) g).
Proof. exact write_mux_segment_total. Qed.
Print Assumptions C11_mux_segment_total_opt.

(* no track has a sample in the interval: the multiplexed writer still writes the (empty) segment, with and without
   optimisation, and every reader gets no sample from it *)
Theorem C11_mux_segment_empty : forall opt ids pos0,
  NoDup ids -> ids <> [] -> lenN ids < 1000000 -> pos0 < 4611686018427387904 ->
  exists fe, write_mux_segment opt ids (map (fun T => (T, [])) ids) = Ok fe /\
    forall tx : C05Model.trex, read_back tx pos0 [] fe = Ok [].
Proof. exact write_mux_segment_empty. Qed.
Print Assumptions C11_mux_segment_empty.

(* the multiplexed writer over all segments, ANY optimisation setting (C11_segmenter_mux_total is the opt = false
   instance the tool runs); intervals may be empty (fst iv = snd iv + 1: the track has no sample in that segment) *)
Theorem C11_segmenter_mux_total_opt : forall opt (f : pfile) pos0 (trs : list strack) nsegs,
  NoDup (map st_id trs) -> trs <> [] -> total_samples trs < 4294967296 -> (1 <= nsegs)%nat ->
  pos0 < 4611686018427387904 ->
  Forall (fun t => C09Spec.consistent (st_tb t) = true /\ data_ok f (st_tb t) = true /\
                   length (st_ivs t) = nsegs /\
                   concat (map C11Model.range (st_ivs t)) = seqN1 (nsamples (st_tb t)) /\
                   Forall (fun iv => fst iv <= snd iv + 1) (st_ivs t)) trs ->
  forallb (mux_seg_small_opt trs) (seq 0 nsegs) = true ->
  exists fes, mux_segments opt f trs nsegs = Ok fes /\
    Forall (fun t => forall tx : C05Model.trex, tx_track tx = st_id t ->
              exists outs, read_all (read_back tx pos0 []) fes = Ok outs /\
                           map Some (concat outs) = expansion f (st_tb t)) trs.
Proof.
  intros opt f pos0 trs nsegs Hnd Hne Htot Hn Hpos Hall Hsm. apply (mux_total opt f pos0 trs nsegs); try assumption.
  rewrite forallb_forall in *. intros k Hk. specialize (Hsm k Hk). unfold mux_seg_small_opt in Hsm.
  apply N.ltb_lt in Hsm. apply N.ltb_lt. destruct opt; lia.
Qed.
Print Assumptions C11_segmenter_mux_total_opt.

(* a single-track fragment WITHOUT samples cannot be encoded with optimisation (OptimizeTfhdTrun: "no samples in
   trun"): the reason Resegment's possibly empty first segment is covered by C11_write_segment_empty (no optimisation)
   only, and the segmenter's single-track writers skip a track without samples in an interval *)
Theorem C11_write_segment_empty_opt_fails : forall T, write_segment true T [] = Err.
Proof. reflexivity. Qed.
Print Assumptions C11_write_segment_empty_opt_fails.

(* hypotheses satisfiable: two tracks, the audio track has NO sample in the second segment *)
Example C11_segmenter_mux_total_opt_example :
  forallb (mux_seg_small_opt [(ex_e2e_tb, 1, [(1, 4); (5, 7)]); (ex_e2e_audio_tb, 2, [(1, 5); (6, 5)])]) (seq 0 2) = true /\
  concat (map C11Model.range [(1, 5); (6, 5)]) = seqN1 5.
Proof. vm_compute. split; reflexivity. Qed.

(* ---- "every produced segment starts with a sync sample of the reference track", at the DECODED level ----
   C11_video_starts_sync is a statement about the plan (sample numbers).  Here the same clause for what a reader of the
   written files sees: for every progressive file whose tracks have consistent tables, the reference track t (the first
   video track, as getSegmentStartsFromVideo picks it) pointing into the file and listing sample 1 in its stss, every
   target duration for which segment starts are found, under the guard of C11_video_starts_sync (chosen sync samples
   have non-zero duration; without it refuted, known finding) and every planned segment below 2 GiB: the in-memory
   writer DOES write the reference track's segments, they read back (decode at any position, GetFullSamples with the
   track's trex, trun optimisation on or off) as the track's expansion, and EVERY written segment's first sample has
   sample_is_non_sync_sample = 0 (bit 16 of the flags a reader gets), whatever the track's sdtp says. *)
From V.c11 Require Import C11SyncDecProofs.
Theorem C11_segmenter_segments_start_sync :
  forall (f : pfile) (trs : list itrack) (t : itrack) d syncTs sps ivs stss,
  Forall (fun t => C09Spec.consistent (snd t) = true) trs -> In t trs -> data_ok f (snd t) = true ->
  first_video (map itrack_of trs) = Some (itrack_of t) ->
  C09Model.t_stss (snd t) = Some stss -> In 1 stss ->
  get_segment_starts (map itrack_of trs) d = Ok (syncTs, sps) -> sps <> [] ->
  get_segment_intervals syncTs sps (itrack_of t) = Ok ivs ->
  nonzero_dur_syncs (itrack_of t) sps = true ->
  forall opt T pos0 (tx : C05Model.trex),
  tx_track tx = T -> pos0 < 4611686018427387904 -> forallb (seg_small (snd t)) ivs = true ->
  exists fes outs, seg_track opt f (snd t) T ivs = Ok fes /\
                   read_all (read_back tx pos0 []) fes = Ok outs /\
                   map Some (concat outs) = expansion f (snd t) /\
                   Forall starts_sync outs.
Proof. exact ref_segments_start_sync. Qed.
Print Assumptions C11_segmenter_segments_start_sync.

(* hypotheses satisfiable: the 7-sample video track above (stss [1;5], sdtp present) + the audio track, 30 ms: the video
   segments 1-4 and 5-7 read back with flags whose bit 16 is clear on the first sample (and set on the second) *)
Example C11_segmenter_segments_start_sync_example :
  let trs := [(true, 1000, ex_e2e_tb); (false, 48000, ex_e2e_audio_tb)] in
  first_video (map itrack_of trs) = Some (itrack_of (true, 1000, ex_e2e_tb)) /\
  get_segment_starts (map itrack_of trs) 30 = Ok (1000, [mkSP 1 0 0; mkSP 5 50 47]) /\
  get_segment_intervals 1000 [mkSP 1 0 0; mkSP 5 50 47] (itrack_of (true, 1000, ex_e2e_tb)) = Ok [(1, 4); (5, 7)] /\
  nonzero_dur_syncs (itrack_of (true, 1000, ex_e2e_tb)) [mkSP 1 0 0; mkSP 5 50 47] = true /\
  forallb (seg_small ex_e2e_tb) [(1, 4); (5, 7)] = true /\
  exists fes, seg_track false ex_e2e_file ex_e2e_tb 1 [(1, 4); (5, 7)] = Ok fes /\
    option_map (map (map (fun x => N.testbit (s_flags (fs_s x)) 16)))
      (match read_all (read_back (C05Model.mkTrex 1 0 0 0) 24 []) fes with Ok o => Some o | _ => None end)
    = Some [[false; true; true; true]; [false; true; true]].
Proof.
  cbv zeta. split; [vm_compute; reflexivity|]. split; [vm_compute; reflexivity|]. split; [vm_compute; reflexivity|].
  split; [vm_compute; reflexivity|]. split; [vm_compute; reflexivity|].
  eexists. split; [vm_compute; reflexivity|]. vm_compute. reflexivity.
Qed.

(* the same for the -lazy writer (makeSingleTrackSegmentsLazyWrite: metadata-only samples, Encode of the mdat header,
   copyMediaData behind it; one chunk-offset box): every written file of the reference track reads back with
   sample_is_non_sync_sample = 0 on its first sample *)
From V.c11 Require Import C11SyncLazyProofs.
Theorem C11_segmenter_lazy_segments_start_sync :
  forall (f : pfile) (trs : list itrack) (t : itrack) d syncTs sps ivs stss,
  Forall (fun t => C09Spec.consistent (snd t) = true) trs -> In t trs -> data_ok f (snd t) = true ->
  one_offset_box (snd t) = true ->
  first_video (map itrack_of trs) = Some (itrack_of t) ->
  C09Model.t_stss (snd t) = Some stss -> In 1 stss ->
  get_segment_starts (map itrack_of trs) d = Ok (syncTs, sps) -> sps <> [] ->
  get_segment_intervals syncTs sps (itrack_of t) = Ok ivs ->
  nonzero_dur_syncs (itrack_of t) sps = true ->
  forall opt T pos0 (tx : C05Model.trex),
  tx_track tx = T -> pos0 < 4611686018427387904 -> forallb (seg_small (snd t)) ivs = true ->
  exists outs res, seg_track_lazy opt f (snd t) T ivs = Ok outs /\
                   read_all (fun p => read_back tx pos0 (snd p) (fst p)) outs = Ok res /\
                   map Some (concat res) = expansion f (snd t) /\
                   Forall starts_sync res.
Proof. exact ref_segments_start_sync_lazy. Qed.
Print Assumptions C11_segmenter_lazy_segments_start_sync.

Example C11_segmenter_lazy_segments_start_sync_example :
  one_offset_box ex_e2e_tb = true /\
  exists outs, seg_track_lazy false (mkPfile (pf_bytes ex_e2e_file) 8 322 true) ex_e2e_tb 1 [(1, 4); (5, 7)] = Ok outs /\
    option_map (map (map (fun x => N.testbit (s_flags (fs_s x)) 16)))
      (match read_all (fun p => read_back (C05Model.mkTrex 1 0 0 0) 24 (snd p) (fst p)) outs with Ok o => Some o | _ => None end)
    = Some [[false; true; true; true]; [false; true; true]].
Proof.
  split; [vm_compute; reflexivity|].
  eexists. split; [vm_compute; reflexivity|]. vm_compute. reflexivity.
Qed.

(* the two theorems under ONE boolean hypothesis on the input (C11Spec.ref_sync_hyps lz f trs k d: all tracks consistent,
   track k is the first video track, points into the file, lists sample 1 in stss, segment starts are found, the guard
   nonzero_dur_syncs, every planned segment of it below 2 GiB; lz: one chunk-offset box).  This is the form the W
   correspondence EVALUATES on the files the built segmenter was run on: where it is true, the files the tool wrote for
   the reference track must each start with a sync sample (evidence: coverage.correspondence.sync_theorem_applies). *)
From V.c11 Require Import C11SyncBoolProofs.
Theorem C11_segmenter_segments_start_sync_applies : forall (f : pfile) (trs : list itrack) k d,
  ref_sync_hyps false f trs k d = true ->
  exists t syncTs sps ivs,
    nth_error trs k = Some t /\ get_segment_starts (map itrack_of trs) d = Ok (syncTs, sps) /\
    get_segment_intervals syncTs sps (itrack_of t) = Ok ivs /\
    forall opt T pos0 (tx : C05Model.trex), tx_track tx = T -> pos0 < 4611686018427387904 ->
    exists fes outs, seg_track opt f (snd t) T ivs = Ok fes /\
                     read_all (read_back tx pos0 []) fes = Ok outs /\
                     map Some (concat outs) = expansion f (snd t) /\
                     Forall starts_sync outs.
Proof.
  intros f trs k d H. destruct (ref_sync_hyps_sound _ _ _ _ _ H)
    as (t & syncTs & sps & ivs & stss & Hn & Hall & Hin & Hd & _ & Hfv & Hst & H1 & Hs & Hne & Hi & Hg & Hsm).
  exists t, syncTs, sps, ivs. split; [exact Hn|]. split; [exact Hs|]. split; [exact Hi|].
  intros opt T pos0 tx Htx Hpos.
  exact (ref_segments_start_sync f trs t d syncTs sps ivs stss Hall Hin Hd Hfv Hst H1 Hs Hne Hi Hg opt T pos0 tx Htx Hpos Hsm).
Qed.
Print Assumptions C11_segmenter_segments_start_sync_applies.

Theorem C11_segmenter_lazy_segments_start_sync_applies : forall (f : pfile) (trs : list itrack) k d,
  ref_sync_hyps true f trs k d = true ->
  exists t syncTs sps ivs,
    nth_error trs k = Some t /\ get_segment_starts (map itrack_of trs) d = Ok (syncTs, sps) /\
    get_segment_intervals syncTs sps (itrack_of t) = Ok ivs /\
    forall opt T pos0 (tx : C05Model.trex), tx_track tx = T -> pos0 < 4611686018427387904 ->
    exists outs res, seg_track_lazy opt f (snd t) T ivs = Ok outs /\
                     read_all (fun p => read_back tx pos0 (snd p) (fst p)) outs = Ok res /\
                     map Some (concat res) = expansion f (snd t) /\
                     Forall starts_sync res.
Proof.
  intros f trs k d H. destruct (ref_sync_hyps_sound _ _ _ _ _ H)
    as (t & syncTs & sps & ivs & stss & Hn & Hall & Hin & Hd & Hone & Hfv & Hst & H1 & Hs & Hne & Hi & Hg & Hsm).
  exists t, syncTs, sps, ivs. split; [exact Hn|]. split; [exact Hs|]. split; [exact Hi|].
  intros opt T pos0 tx Htx Hpos.
  exact (ref_segments_start_sync_lazy f trs t d syncTs sps ivs stss Hall Hin Hd (Hone eq_refl) Hfv Hst H1 Hs Hne Hi Hg
           opt T pos0 tx Htx Hpos Hsm).
Qed.
Print Assumptions C11_segmenter_lazy_segments_start_sync_applies.

(* satisfiable (audio first, the video track is track 1), and false for a track that is not the reference *)
Example C11_ref_sync_hyps_example :
  ref_sync_hyps false ex_e2e_file [(false, 48000, ex_e2e_audio_tb); (true, 1000, ex_e2e_tb)] 1 30 = true /\
  ref_sync_hyps true (mkPfile (pf_bytes ex_e2e_file) 8 322 true)
                [(false, 48000, ex_e2e_audio_tb); (true, 1000, ex_e2e_tb)] 1 30 = true /\
  ref_sync_hyps false ex_e2e_file [(false, 48000, ex_e2e_audio_tb); (true, 1000, ex_e2e_tb)] 0 30 = false.
Proof. vm_compute. repeat split. Qed.
