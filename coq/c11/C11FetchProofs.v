(* C11FetchProofs.v — the segmenter's per-sample fetch (C11FetchModel.v) returns sample n of the naive
   expansion of the tables (C11Spec.v / C09Spec.v), for every consistent track whose tables point into the
   file.  Composes the C09 query theorems. *)
From V.lib Require Import Base.
From V.c09 Require Import C09Model C09Spec C09BaseProofs C09SttsProofs C09CttsProofs C09StscProofs C09TrakProofs.
From V.c05 Require Import C05Model C05FragModel.
From V.c11 Require Import C11FetchModel C11Spec.

Lemma skipn_skipn' {A} (l : list A) : forall a b, skipn b (skipn a l) = skipn (a + b) l.
Proof.
  induction l as [|x t IH]; intros a b; [rewrite !skipn_nil; reflexivity|].
  destruct a as [|a]; [reflexivity|]. cbn [skipn Nat.add]. apply IH.
Qed.

Lemma sub_list_sub_list {A} (l : list A) a n b m :
  (b + m <= n)%nat -> sub_list (sub_list l a n) b m = sub_list l (a + b) m.
Proof.
  intros H. unfold sub_list. rewrite skipn_firstn_comm, firstn_firstn, skipn_skipn', Nat.min_l by lia. reflexivity.
Qed.

Lemma sub_list_length {A} (l : list A) a n : (a + n <= length l)%nat -> length (sub_list l a n) = n.
Proof. intros H. unfold sub_list. rewrite firstn_length, skipn_length. lia. Qed.

Lemma in_seqN x : forall k s, In x (seqN s k) <-> s <= x < s + N.of_nat k.
Proof.
  induction k as [|k IH]; intros s; cbn [seqN In]; [change (N.of_nat 0) with 0; split; [tauto|lia]|].
  rewrite IH, Nat2N.inj_succ. split; [intros [->|?]|intros ?]; lia.
Qed.

Lemma seqN_app : forall k1 k2 s, seqN s (k1 + k2) = seqN s k1 ++ seqN (s + N.of_nat k1) k2.
Proof.
  induction k1 as [|k1 IH]; intros k2 s; cbn [seqN Nat.add app].
  - f_equal. lia.
  - rewrite IH. replace (s + 1 + N.of_nat k1) with (s + N.of_nat (S k1)) by (rewrite Nat2N.inj_succ; lia). reflexivity.
Qed.

(* sample numbers the track has *)
Definition all_in (tb : tables) (ns : list N) : Prop := forall x, In x ns -> 1 <= x <= nsamples tb.

Lemma all_in_seqN tb nr k : 1 <= nr -> nr + N.of_nat k <= nsamples tb + 1 -> all_in tb (seqN nr k).
Proof. intros H1 H2 x Hx. apply in_seqN in Hx. lia. Qed.

Lemma all_in_cons tb n ns : all_in tb (n :: ns) -> 1 <= n <= nsamples tb /\ all_in tb ns.
Proof. intros H. split; [apply H; left; reflexivity|intros x Hx; apply H; right; exact Hx]. Qed.

Lemma add_sizes_ok tb : C09Spec.consistent tb = true -> forall k s off,
  1 <= s -> s - 1 + N.of_nat k <= nsamples tb ->
  off + sumN (skipn (N.to_nat (s - 1)) (sizes tb)) < 18446744073709551616 ->
  add_sizes (t_stsz tb) k s off = Ok (off + sumN (sublist (sizes tb) (s - 1) (N.of_nat k))).
Proof.
  intros H. induction k as [|k IH]; intros s off Hs Hlen Hb.
  - cbn [add_sizes]. unfold sublist. cbn [N.of_nat N.to_nat firstn sumN]. f_equal. lia.
  - cbn [add_sizes]. destruct (size_correct tb H s ltac:(lia)) as [x [Hx1 Hx2]].
    rewrite Hx2. cbn [rbind]. unfold S_size in Hx1. destruct (s =? 0) eqn:E0; [lia|].
    rewrite (skipn_nthN _ _ _ Hx1) in Hb. cbn [sumN] in Hb.
    rewrite (sublist_S _ _ _ _ Hx1). cbn [sumN].
    rewrite u64_small by lia. replace (s - 1 + 1) with (s + 1 - 1) in * by lia.
    rewrite IH; [f_equal; lia|lia|lia|lia].
Qed.

Lemma add_sizes_total tb : C09Spec.consistent tb = true -> forall s e off,
  1 <= s -> s <= e + 1 -> e <= nsamples tb -> off + sumN (sizes tb) < 18446744073709551616 ->
  add_sizes (t_stsz tb) (N.to_nat (e + 1 - s)) s off = Ok (off + S_total_size tb s e).
Proof.
  intros H s e off Hs Hse He Hb. pose proof (sumN_skipn_le (sizes tb) (N.to_nat (s - 1))).
  rewrite (add_sizes_ok tb H), N2Nat.id by lia. reflexivity.
Qed.

Lemma fetch_chunk_offset_ok tb c o : S_chunk_offset tb c = Some o -> fetch_chunk_offset tb c = Ok o.
Proof.
  unfold S_chunk_offset, offsets, fetch_chunk_offset. destruct (c =? 0) eqn:E; [discriminate|].
  destruct (t_stco tb) as [l|].
  - intros Hn. apply idx_m1_Some; [lia|exact Hn].
  - destruct (t_co64 tb) as [l|]; intros Hn; [apply idx_m1_Some; [lia|exact Hn]|].
    rewrite nthN_nil in Hn. discriminate.
Qed.

Lemma fic_ge1 tb c : 1 <= S_first_in_chunk tb c.
Proof. unfold S_first_in_chunk. lia. Qed.

Lemma sample_offset_ok tb : C09Spec.consistent tb = true -> forall n, 1 <= n <= nsamples tb ->
  exists o, S_offset_of tb n = Some o /\ sample_offset tb n = Ok o /\ o + sumN (sizes tb) < 2 * 18446744073709551616.
Proof.
  intros H n Hn.
  destruct (chunk_of_sample_correct tb H n Hn) as [c [Hc [Hcr [Hfic [_ Hq]]]]].
  destruct (get_offset_correct tb H c Hcr) as [o [Ho _]].
  pose proof (offset_bound tb c o H Ho) as Hob.
  pose proof (fic_ge1 tb c) as Hf1.
  unfold S_offset_of, sample_offset. rewrite Hc, Ho, Hq. cbn [rbind].
  rewrite (fetch_chunk_offset_ok tb c o Ho). cbn [rbind].
  eexists. split; [reflexivity|].
  replace (n - S_first_in_chunk tb c) with (n - 1 + 1 - S_first_in_chunk tb c) by lia.
  rewrite (add_sizes_total tb H) by lia. split; [reflexivity|].
  pose proof (total_size_le tb (S_first_in_chunk tb c) (n - 1)). lia.
Qed.

Lemma data_ok_parts f tb : data_ok f tb = true ->
  (forall n, 1 <= n <= nsamples tb -> sample_in f tb n = true) /\
  pf_mdat_start f + pf_mdat_len f <= lenN (pf_bytes f) /\ lenN (pf_bytes f) < 9223372036854775808 /\
  (pf_lazy f = true -> 0 < pf_mdat_len f).
Proof.
  unfold data_ok. intros H. repeat (apply andb_prop in H; destruct H as [H ?]).
  split; [|split; [lia|split; [lia|]]].
  - intros n Hn. rewrite forallb_forall in H. apply H. apply in_seqN. lia.
  - intros Hl. rewrite Hl in *. lia.
Qed.

Lemma sample_bytes_ok f tb n o s : data_ok f tb = true -> 1 <= n <= nsamples tb ->
  S_offset_of tb n = Some o -> S_size tb n = Some s ->
  sample_bytes f o s = Ok (sub_list (pf_bytes f) (N.to_nat o) (N.to_nat s)) /\ o + s <= lenN (pf_bytes f).
Proof.
  intros Hd Hn Ho Hs. destruct (data_ok_parts f tb Hd) as [Hin [Hm [Hlen Hlz]]].
  specialize (Hin n Hn). unfold sample_in in Hin. rewrite Ho, Hs in Hin.
  unfold sample_bytes, is_lazy, mdat_data. destruct (pf_lazy f) eqn:El.
  - specialize (Hlz eq_refl). destruct (0 <? pf_mdat_len f) eqn:E0; [|lia]. cbn [andb].
    destruct (9223372036854775808 <=? o) eqn:E1; [lia|].
    destruct (s =? 0) eqn:E2.
    + replace s with 0 by lia. unfold sub_list. cbn [N.to_nat firstn]. split; [reflexivity|lia].
    + destruct (lenN (pf_bytes f) <? o + s) eqn:E3; [lia|]. split; [reflexivity|lia].
  - cbn [andb]. apply andb_prop in Hin. destruct Hin as [H1 H2].
    rewrite sub64_small by lia.
    assert (Hl : lenN (sub_list (pf_bytes f) (N.to_nat (pf_mdat_start f)) (N.to_nat (pf_mdat_len f))) = pf_mdat_len f).
    { unfold lenN. rewrite sub_list_length; unfold lenN in *; lia. }
    rewrite Hl. rewrite u64_small by lia.
    destruct (o - pf_mdat_start f + s <? o - pf_mdat_start f) eqn:E1; [lia|].
    destruct (pf_mdat_len f <? o - pf_mdat_start f + s) eqn:E2; [lia|]. cbn [orb].
    rewrite sub_list_sub_list by lia. split; [|lia]. do 2 f_equal. lia.
Qed.

Lemma fetch_full_sample_ok f tb : C09Spec.consistent tb = true -> data_ok f tb = true ->
  forall n, 1 <= n <= nsamples tb ->
  exists s, S_full f tb n = Some s /\ fetch_full_sample f tb n = Ok s.
Proof.
  intros H Hd n Hn. unfold S_full, S_meta, S_bytes, fetch_full_sample.
  destruct (sample_offset_ok tb H n Hn) as [o [Ho1 [Ho2 _]]].
  destruct (flags_correct tb H n Hn) as [fl [Hf1 Hf2]].
  destruct (decode_time_correct tb H n Hn) as [t [d [Ht1 [Hd1 Ht2]]]].
  destruct (size_correct tb H n Hn) as [s [Hs1 Hs2]].
  destruct (sample_bytes_ok f tb n o s Hd Hn Ho1 Hs1) as [Hb _].
  rewrite Ho1, Ho2, Hf1, Hf2, Ht1, Hd1, Ht2, Hs1, Hs2. cbn [rbind fst snd].
  destruct (t_ctts tb) as [c|] eqn:Ec.
  - destruct (cto_correct tb c H Ec n Hn) as [x [Hx1 Hx2]]. rewrite Hx1, Hx2. cbn [rbind]. rewrite Hb. cbn [rbind].
    eexists. split; reflexivity.
  - cbn [rbind]. rewrite Hb. cbn [rbind]. eexists. split; reflexivity.
Qed.

Lemma fetch_loop_ok f tb : C09Spec.consistent tb = true -> data_ok f tb = true ->
  forall k nr, all_in tb (seqN nr k) ->
  exists l, fetch_loop f tb k nr = Ok l /\ map Some l = map (S_full f tb) (seqN nr k).
Proof.
  intros H Hd. induction k as [|k IH]; intros nr Hin.
  - exists []. split; reflexivity.
  - apply all_in_cons in Hin. destruct Hin as [Hn Hin].
    destruct (fetch_full_sample_ok f tb H Hd nr Hn) as [s [Hs1 Hs2]].
    destruct (IH (nr + 1) Hin) as [l [Hl Hm]].
    exists (s :: l). cbn [fetch_loop seqN map]. rewrite Hs2, Hl, Hs1, Hm. split; reflexivity.
Qed.

Lemma fetch_meta_ok tb : C09Spec.consistent tb = true -> forall n, 1 <= n <= nsamples tb ->
  exists m, S_meta tb n = Some m /\ fetch_meta tb n = Ok (meta_sample m).
Proof.
  intros H n Hn. unfold S_meta, fetch_meta.
  destruct (flags_correct tb H n Hn) as [fl [Hf1 Hf2]].
  destruct (dur_correct tb H n Hn) as [d [Hd1 Hd2]].
  destruct (size_correct tb H n Hn) as [s [Hs1 Hs2]].
  rewrite Hf1, Hd1, Hs1, Hf2, Hd2, Hs2. cbn [rbind].
  destruct (t_ctts tb) as [c|] eqn:Ec.
  - destruct (cto_correct tb c H Ec n Hn) as [x [Hx1 Hx2]]. rewrite Hx1, Hx2. cbn [rbind]. eexists. split; reflexivity.
  - cbn [rbind]. eexists. split; reflexivity.
Qed.

Lemma fetch_meta_loop_ok tb : C09Spec.consistent tb = true ->
  forall k nr, all_in tb (seqN nr k) ->
  exists l, fetch_meta_loop tb k nr = Ok l /\
            map Some l = map (fun n => option_map meta_sample (S_meta tb n)) (seqN nr k).
Proof.
  intros H. induction k as [|k IH]; intros nr Hin.
  - exists []. split; reflexivity.
  - apply all_in_cons in Hin. destruct Hin as [Hn Hin].
    destruct (fetch_meta_ok tb H nr Hn) as [s [Hs1 Hs2]].
    destruct (IH (nr + 1) Hin) as [l [Hl Hm]].
    exists (meta_sample s :: l). cbn [fetch_meta_loop seqN map]. rewrite Hs2, Hl, Hs1, Hm. split; reflexivity.
Qed.

(* the full samples of an interval carry the metadata GetSamplesForInterval returns *)
Lemma S_full_meta f tb n s : S_full f tb n = Some s ->
  option_map meta_sample (S_meta tb n) = Some (fs_s s).
Proof.
  unfold S_full. destruct (S_meta tb n) as [m|]; [|discriminate].
  destruct (S_decode_time tb n); [|discriminate]. destruct (S_bytes f tb n); [|discriminate].
  intros E. injection E as <-. reflexivity.
Qed.
