(* C11CopyProofs.v — copyMediaData (examples/segmenter/segment.go) writes exactly the bytes of samples a..b in
   sample order, for every consistent track whose tables point into the file (one chunk-offset box). *)
From V.lib Require Import Base.
From V.c09 Require Import C09Model C09Spec C09BaseProofs C09SttsProofs C09StscProofs C09TrakProofs.
From V.c05 Require Import C05Model C05FragModel.
From V.c11 Require Import C11FetchModel C11Spec C11FetchProofs.

Lemma sub_list_split {A} (l : list A) x p q :
  sub_list l x (p + q) = sub_list l x p ++ sub_list l (x + p) q.
Proof.
  unfold sub_list. rewrite <- skipn_skipn'. generalize (skipn x l) as l'. clear.
  induction p as [|p IH]; intros l'; [reflexivity|].
  destruct l' as [|y t]; cbn [Nat.add firstn skipn app]; [rewrite firstn_nil; reflexivity|].
  rewrite IH. reflexivity.
Qed.

Lemma sublist_split {A} (l : list A) s k1 k2 :
  sublist l s (k1 + k2) = sublist l s k1 ++ sublist l (s + k1) k2.
Proof.
  unfold sublist. replace (N.to_nat (k1 + k2)) with (N.to_nat k1 + N.to_nat k2)%nat by lia.
  replace (N.to_nat (s + k1)) with (N.to_nat s + N.to_nat k1)%nat by lia.
  apply (sub_list_split l (N.to_nat s) (N.to_nat k1) (N.to_nat k2)).
Qed.

Lemma sublist_one {A} (l : list A) k x : nthN l k = Some x -> sublist l k 1 = [x].
Proof.
  intros H. change 1 with (N.of_nat 1). rewrite (sublist_S l k x 0 H). unfold sublist. reflexivity.
Qed.

Lemma total_size_snoc tb a n x : 1 <= a -> a <= n -> S_size tb n = Some x ->
  S_total_size tb a n = S_total_size tb a (n - 1) + x.
Proof.
  intros Ha Han Hx. unfold S_total_size, S_size in *. destruct (n =? 0) eqn:E; [lia|].
  replace (n + 1 - a) with ((n - 1 + 1 - a) + 1) by lia.
  rewrite sublist_split, sumN_app. replace (a - 1 + (n - 1 + 1 - a)) with (n - 1) by lia.
  rewrite (sublist_one _ _ _ Hx). cbn [sumN]. lia.
Qed.

Lemma total_size_cons tb s e x : 1 <= s -> s <= e -> S_size tb s = Some x ->
  S_total_size tb s e = x + S_total_size tb (s + 1) e.
Proof.
  intros Hs Hse Hx. unfold S_total_size, S_size in *. destruct (s =? 0) eqn:E; [lia|].
  replace (e + 1 - s) with (1 + (e + 1 - (s + 1))) by lia.
  rewrite sublist_split, sumN_app, (sublist_one _ _ _ Hx). cbn [sumN].
  replace (s - 1 + 1) with (s + 1 - 1) by lia. lia.
Qed.

Lemma chunk_of_unique tb : C09Spec.consistent tb = true -> forall c cnt n,
  1 <= c <= nchunks tb -> S_chunk_count tb c = Some cnt ->
  S_first_in_chunk tb c <= n < S_first_in_chunk tb c + cnt -> S_chunk_of tb n = Some c.
Proof.
  intros H c cnt n Hc Hcnt Hn.
  destruct (get_chunk_correct tb H c Hc) as [cnt0 [Hcnt0 [_ [Hbd _]]]].
  rewrite Hcnt in Hcnt0. injection Hcnt0 as <-.
  pose proof (fic_ge1 tb c).
  destruct (chunk_of_sample_correct tb H n ltac:(lia)) as [c' [Hc' [Hcr' [Hf' [[cnt' [Hcnt' Hl']] _]]]]].
  rewrite Hc'. f_equal.
  destruct (N.lt_trichotomy c' c) as [Hlt|[Heq|Hgt]]; [|exact Heq|].
  - pose proof (fic_succ tb c' cnt' ltac:(lia) Hcnt'). pose proof (fic_mono tb (c' + 1) c ltac:(lia)). lia.
  - pose proof (fic_succ tb c cnt ltac:(lia) Hcnt). pose proof (fic_mono tb (c + 1) c' ltac:(lia)). lia.
Qed.

(* the bytes of a run of samples inside one chunk *)
Lemma S_data_cons f tb s e : s <= e ->
  S_data f tb s e = match S_bytes f tb s with Some d => d | None => [] end ++ S_data f tb (s + 1) e.
Proof.
  intros Hse. unfold S_data. replace (N.to_nat (e + 1 - s)) with (S (N.to_nat (e + 1 - (s + 1)))) by lia.
  cbn [seqN flat_map]. reflexivity.
Qed.

Lemma S_data_empty f tb s e : e < s -> S_data f tb s e = [].
Proof. intros H. unfold S_data. replace (N.to_nat (e + 1 - s)) with O by lia. reflexivity. Qed.

Lemma S_data_app f tb s e b : s <= e + 1 -> e <= b -> S_data f tb s b = S_data f tb s e ++ S_data f tb (e + 1) b.
Proof.
  intros H1 H2. unfold S_data.
  replace (N.to_nat (b + 1 - s)) with (N.to_nat (e + 1 - s) + N.to_nat (b + 1 - (e + 1)))%nat by lia.
  rewrite seqN_app, flat_map_app. replace (s + N.of_nat (N.to_nat (e + 1 - s))) with (e + 1) by lia. reflexivity.
Qed.

Lemma chunk_bytes f tb : C09Spec.consistent tb = true -> data_ok f tb = true ->
  forall c cnt o, 1 <= c <= nchunks tb -> S_chunk_count tb c = Some cnt -> S_chunk_offset tb c = Some o ->
  forall k s, S_first_in_chunk tb c <= s -> s + N.of_nat k < S_first_in_chunk tb c + cnt ->
  let x := o + S_total_size tb (S_first_in_chunk tb c) (s - 1) in
  let e := s + N.of_nat k in
  sub_list (pf_bytes f) (N.to_nat x) (N.to_nat (S_total_size tb s e)) = S_data f tb s e /\
  x + S_total_size tb s e <= lenN (pf_bytes f).
Proof.
  intros H Hd c cnt o Hc Hcnt Ho.
  destruct (get_chunk_correct tb H c Hc) as [cnt0 [Hcnt0 [_ [Hbd _]]]].
  rewrite Hcnt in Hcnt0. injection Hcnt0 as <-.
  pose proof (fic_ge1 tb c) as Hf1.
  assert (Hone : forall s, S_first_in_chunk tb c <= s < S_first_in_chunk tb c + cnt ->
            exists z, S_size tb s = Some z /\
              S_bytes f tb s = Some (sub_list (pf_bytes f) (N.to_nat (o + S_total_size tb (S_first_in_chunk tb c) (s - 1))) (N.to_nat z)) /\
              o + S_total_size tb (S_first_in_chunk tb c) (s - 1) + z <= lenN (pf_bytes f)).
  { intros s Hs. destruct (size_correct tb H s ltac:(lia)) as [z [Hz _]]. exists z. split; [exact Hz|].
    assert (Hoff : S_offset_of tb s = Some (o + S_total_size tb (S_first_in_chunk tb c) (s - 1))).
    { unfold S_offset_of. rewrite (chunk_of_unique tb H c cnt s Hc Hcnt Hs), Ho. reflexivity. }
    destruct (sample_bytes_ok f tb s _ z Hd ltac:(lia) Hoff Hz) as [_ Hle].
    unfold S_bytes. rewrite Hoff, Hz. split; [reflexivity|exact Hle]. }
  induction k as [|k IH]; intros s Hs He x e.
  - subst x e. replace (s + N.of_nat 0) with s in * by lia.
    destruct (Hone s ltac:(lia)) as [z [Hz [Hb Hle]]].
    rewrite (S_data_cons f tb s s ltac:(lia)), Hb, (S_data_empty f tb (s + 1) s ltac:(lia)), app_nil_r.
    rewrite (total_size_cons tb s s z ltac:(lia) ltac:(lia) Hz).
    assert (S_total_size tb (s + 1) s = 0) as ->.
    { unfold S_total_size. replace (s + 1 - (s + 1)) with 0 by lia. reflexivity. }
    rewrite N.add_0_r. split; [reflexivity|exact Hle].
  - subst x e. rewrite Nat2N.inj_succ in *.
    destruct (Hone s ltac:(lia)) as [z [Hz [Hb Hle]]].
    destruct (IH (s + 1) ltac:(lia) ltac:(lia)) as [IH1 IH2]. cbv zeta in IH1, IH2.
    replace (s + 1 + N.of_nat k) with (s + N.succ (N.of_nat k)) in IH1, IH2 by lia.
    replace (s + 1 - 1) with s in IH1, IH2 by lia.
    rewrite (total_size_snoc tb (S_first_in_chunk tb c) s z Hf1 Hs Hz) in IH1, IH2.
    rewrite (S_data_cons f tb s (s + N.succ (N.of_nat k)) ltac:(lia)), Hb.
    rewrite (total_size_cons tb s (s + N.succ (N.of_nat k)) z ltac:(lia) ltac:(lia) Hz).
    replace (N.to_nat (z + S_total_size tb (s + 1) (s + N.succ (N.of_nat k))))
      with (N.to_nat z + N.to_nat (S_total_size tb (s + 1) (s + N.succ (N.of_nat k))))%nat by lia.
    rewrite sub_list_split. split; [|lia]. f_equal. rewrite <- IH1. f_equal. lia.
Qed.

Lemma copy_offset_ok tb c o prev : one_offset_box tb = true -> S_chunk_offset tb c = Some o ->
  match t_co64 tb with
  | Some l => idx_m1 l c
  | None => match t_stco tb with Some l => idx_m1 l c | None => Ok prev end
  end = Ok o.
Proof.
  unfold one_offset_box, S_chunk_offset, offsets. destruct (c =? 0) eqn:E; [discriminate|].
  destruct (t_stco tb) as [l|]; destruct (t_co64 tb) as [l2|]; intros H1 Hn; try discriminate.
  - apply idx_m1_Some; [lia|exact Hn].
  - apply idx_m1_Some; [lia|exact Hn].
Qed.

(* where the copy starts in chunk c, which lies at file offset o: in the first chunk at sample a, behind the
   chunk's earlier samples; in a later chunk at the chunk's first sample *)
Lemma copy_start tb : C09Spec.consistent tb = true -> forall (first : bool) a c o,
  (first = true -> S_first_in_chunk tb c <= a <= nsamples tb + 1) -> o + sumN (sizes tb) < 18446744073709551616 ->
  let s := if first then a else S_first_in_chunk tb c in
  (if first then do o' <- add_sizes (t_stsz tb) (N.to_nat (a - S_first_in_chunk tb c)) (S_first_in_chunk tb c) o; Ok (o', a)
   else Ok (o, S_first_in_chunk tb c))
  = Ok (o + S_total_size tb (S_first_in_chunk tb c) (s - 1), s).
Proof.
  intros H first a c o Ha Ho s. pose proof (fic_ge1 tb c). subst s. destruct first.
  - specialize (Ha eq_refl). replace (a - S_first_in_chunk tb c) with (a - 1 + 1 - S_first_in_chunk tb c) by lia.
    rewrite (add_sizes_total tb H) by lia. reflexivity.
  - rewrite total_size_empty, N.add_0_r by assumption. reflexivity.
Qed.

(* one turn: the samples s..e of chunk c are measured, looked for in the file and copied in front of what the
   remaining turns R copy *)
Lemma copy_chunk_ok f tb : C09Spec.consistent tb = true -> data_ok f tb = true ->
  forall c cnt o s e (R : res (list N)), 1 <= c <= nchunks tb ->
  S_chunk_count tb c = Some cnt -> S_chunk_offset tb c = Some o ->
  S_first_in_chunk tb c <= s -> s <= e -> e < S_first_in_chunk tb c + cnt ->
  let off := o + S_total_size tb (S_first_in_chunk tb c) (s - 1) in
  (do size <- add_sizes (t_stsz tb) (N.to_nat (e + 1 - s)) s 0;
   if (9223372036854775808 <=? off) || (9223372036854775808 <=? size) then Err
   else if size =? 0 then R
   else if lenN (pf_bytes f) <? off + size then Err
   else do more <- R; Ok (sub_list (pf_bytes f) (N.to_nat off) (N.to_nat size) ++ more))
  = do more <- R; Ok (S_data f tb s e ++ more).
Proof.
  intros H Hd c cnt o s e R Hc Hcnt Ho Hs Hse He off.
  destruct (get_chunk_correct tb H c Hc) as [cnt0 [Hcnt0 [_ [Hbd _]]]]. rewrite Hcnt in Hcnt0. injection Hcnt0 as <-.
  destruct (data_ok_parts f tb Hd) as [_ [_ [Hlen _]]].
  pose proof (sizes_bound tb H) as Hsb. pose proof (fic_ge1 tb c) as Hf1.
  rewrite (add_sizes_total tb H), N.add_0_l by lia. cbn [rbind].
  destruct (chunk_bytes f tb H Hd c cnt o Hc Hcnt Ho (N.to_nat (e - s)) s Hs ltac:(lia)) as [Hbytes Hle].
  cbv zeta in Hbytes, Hle. replace (s + N.of_nat (N.to_nat (e - s))) with e in Hbytes, Hle by lia.
  fold off in Hbytes, Hle. rewrite <- Hbytes. clear Hbytes. set (size := S_total_size tb s e) in *. clearbody size off.
  destruct ((9223372036854775808 <=? off) || (9223372036854775808 <=? size)) eqn:Eg; [lia|].
  destruct (size =? 0) eqn:E0.
  - replace size with 0 by lia. unfold sub_list. cbn [N.to_nat firstn app]. destruct R; reflexivity.
  - destruct (lenN (pf_bytes f) <? off + size) eqn:E1; [lia|reflexivity].
Qed.

(* the turns for chunks c .. cb (m of them after c), starting at sample s of chunk c *)
Lemma copy_chunks_ok f tb a b cb : C09Spec.consistent tb = true -> data_ok f tb = true -> one_offset_box tb = true ->
  1 <= a -> a <= b -> b <= nsamples tb -> cb <= nchunks tb -> S_first_in_chunk tb cb <= b ->
  (forall cnt, S_chunk_count tb cb = Some cnt -> b < S_first_in_chunk tb cb + cnt) ->
  forall m c (first : bool) prev l, 1 <= c -> c + N.of_nat m = cb ->
  map Some l = map (S_chunk tb) (seqN c (S m)) ->
  let s := if first then a else S_first_in_chunk tb c in
  S_first_in_chunk tb c <= s -> s <= b ->
  (forall cnt, S_chunk_count tb c = Some cnt -> s < S_first_in_chunk tb c + cnt) ->
  copy_chunks f tb a b first prev l = Ok (S_data f tb s b).
Proof.
  intros H Hd Hone Ha Hab Hb Hcb Hfb Hlb.
  destruct (stsc_facts tb H) as [_ [_ [_ [_ [_ [_ [HN _]]]]]]].
  induction m as [|m IH]; intros c first prev l Hc Hm Hl s Hfs Hsb Hlast;
    (destruct l as [|ch l']; [discriminate|]); cbn [seqN map] in Hl; injection Hl as Hch Hl';
    destruct (get_chunk_correct tb H c ltac:(lia)) as [cnt [Hcnt [Hc1 [Hbd _]]]];
    unfold S_chunk in Hch; rewrite Hcnt in Hch; injection Hch as ->;
    destruct (get_offset_correct tb H c ltac:(lia)) as [o [Ho _]];
    pose proof (offset_bound tb c o H Ho) as Hob; specialize (Hlast cnt Hcnt);
    cbn [copy_chunks ch_nr ch_start ch_n]; rewrite (copy_offset_ok tb c o prev Hone Ho); cbn [rbind];
    rewrite (copy_start tb H first a c o) by (try intros ->; subst s; lia); fold s; cbn [rbind].
  - destruct l'; [|discriminate]. replace c with cb in * by lia.
    rewrite (copy_chunk_ok f tb H Hd cb cnt o s b) by (try apply Hlb; auto; lia).
    cbn [copy_chunks rbind]. rewrite app_nil_r. reflexivity.
  - destruct l' as [|ch' l'']; [discriminate|].
    pose proof (fic_succ tb c cnt Hc Hcnt) as Hsucc. pose proof (fic_mono tb (c + 1) cb ltac:(lia)) as Hmono.
    rewrite (u32_small (S_first_in_chunk tb c + cnt)), (sub32_small (S_first_in_chunk tb c + cnt)),
      (u32_small (S_first_in_chunk tb c + cnt - 1)) by lia.
    rewrite (copy_chunk_ok f tb H Hd c cnt o s (S_first_in_chunk tb c + cnt - 1)) by (auto; lia).
    rewrite (IH (c + 1) false _ (ch' :: l'')); try assumption; try lia.
    + cbn [rbind]. rewrite Hsucc, (S_data_app f tb s (S_first_in_chunk tb c + cnt - 1) b) by lia.
      do 3 f_equal. lia.
    + intros cnt' Hcnt'. destruct (get_chunk_correct tb H (c + 1) ltac:(lia)) as [cnt2 [Hc2 [Hp _]]].
      rewrite Hcnt' in Hc2. injection Hc2 as <-. lia.
Qed.

Lemma copy_media_data_ok f tb : C09Spec.consistent tb = true -> data_ok f tb = true -> one_offset_box tb = true ->
  forall a b, 1 <= a -> a <= b -> b <= nsamples tb ->
  copy_media_data f tb a b = Ok (S_data f tb a b).
Proof.
  intros H Hd Hone a b Ha Hab Hb.
  destruct (containing_chunks_correct tb H a b Ha Hab Hb) as [ca [cb [l [Hca [Hcb [H1 [H2 [H3 [Hl Hm]]]]]]]]].
  destruct (chunk_of_sample_correct tb H a ltac:(lia)) as [ca' [Hca' [_ [Hfa [[cnta [Hcnta Hla]] _]]]]].
  destruct (chunk_of_sample_correct tb H b ltac:(lia)) as [cb' [Hcb' [_ [Hfb [[cntb [Hcntb Hlb]] _]]]]].
  rewrite Hca in Hca'. injection Hca' as <-. rewrite Hcb in Hcb'. injection Hcb' as <-.
  unfold copy_media_data. rewrite Hl. cbn [rbind].
  apply (copy_chunks_ok f tb a b cb H Hd Hone Ha Hab Hb H3 Hfb) with (m := N.to_nat (cb - ca)) (c := ca) (first := true);
    try assumption; try lia.
  - intros cnt Hc. rewrite Hcntb in Hc. injection Hc as <-. exact Hlb.
  - rewrite Hm. f_equal. f_equal. lia.
  - intros cnt Hc. rewrite Hcnta in Hc. injection Hc as <-. exact Hla.
Qed.

(* the bytes copied are the data of the full samples of the interval, in order *)
Lemma S_data_fulls f tb : forall k nr l, map Some l = map (S_full f tb) (seqN nr k) ->
  flat_map fs_data l = flat_map (fun n => match S_bytes f tb n with Some d => d | None => [] end) (seqN nr k).
Proof.
  induction k as [|k IH]; intros nr l Hl.
  - destruct l; [reflexivity|discriminate].
  - destruct l as [|x l']; [discriminate|]. cbn [seqN map] in Hl. injection Hl as Hx Hl'.
    cbn [seqN flat_map]. rewrite (IH _ _ Hl'). f_equal.
    unfold S_full in Hx. destruct (S_meta tb nr); [|discriminate]. destruct (S_decode_time tb nr); [|discriminate].
    destruct (S_bytes f tb nr); [|discriminate]. injection Hx as ->. reflexivity.
Qed.
