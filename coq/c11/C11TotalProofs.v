(* C11TotalProofs.v — the in-memory writer does return without error: CreateFragment + AddFullSampleToTrack never
   fail on the track's own id, Fragment.Encode succeeds for a non-empty fragment below 2 GiB, and the written
   fragment satisfies the guard of the round trip.  Together with C11PipeProofs this removes the hypotheses
   "the writer returned Ok" and "every written fragment is small" in favour of a bound on the INPUT intervals. *)
From V.lib Require Import Base.
From V.c11 Require Import C11Model.
From V.c09 Require Import C09Model C09Spec.
From V.c05 Require Import C05Model C05FragModel C05HistProofs C05ReadProofs C05RoundProofs C05OptProofs.
From V.c11 Require Import C11FetchModel C11Spec C11FetchProofs C11PipeProofs.

(* the fragments CreateFragment(seq, T) becomes: one traf of track T with its one trun (write order 0) *)
Definition one_m (h : tfhd) (dt : tfdt) (r : trun) (m : mdat) : frag := mkFrag [mkTraf h dt [r] 0] m 1 0 0 0.
Definition one (h : tfhd) (dt : tfdt) (r : trun) (data : list N) : frag := one_m h dt r (mkMdat data [] 0 false).

Lemma set_base_version t : td_version (set_base t) <= 1.
Proof. unfold set_base. destruct (4294967296 <=? t); cbn; lia. Qed.

(* AddSampleToTrack on the fragment's own track never fails and appends to the one trun *)
Lemma add_sample_one T dt l m (s : sample) dts : td_version dt <= 1 ->
  exists dt', add_sample_to_track (one_m (create_tfhd T) dt (canon 0 l) m) T s dts
              = Ok (one_m (create_tfhd T) dt' (canon 0 (l ++ [s])) (md_add_lazy m (s_size s))) /\
              td_version dt' <= 1.
Proof.
  intros Hv. unfold one_m, add_sample_to_track. cbn [fr_trafs fr_next add_to_track_trafs tf_hd].
  cbn [create_tfhd tf_track]. rewrite N.eqb_refl.
  unfold add_to_traf. cbn [tf_truns last removelast tr_won canon tf_hd tf_extra app tf_dt].
  change (u32 (1 + 4294967295)) with 0. cbn [N.eqb negb fr_with fr_mdat fr_trafs fr_next fr_pre fr_moofx fr_post].
  eexists. split; [reflexivity|]. destruct (u32 (lenN (tr_samples (canon 0 l))) =? 0); [apply set_base_version|exact Hv].
Qed.

Lemma add_fulls_one T : forall (l : list fullsample) dt l0 data, td_version dt <= 1 ->
  exists dt', add_fulls (one (create_tfhd T) dt (canon 0 l0) data) T l
              = Ok (one (create_tfhd T) dt' (canon 0 (l0 ++ map fs_s l)) (data ++ flat_map fs_data l)) /\
              td_version dt' <= 1.
Proof.
  induction l as [|s l IH]; intros dt l0 data Hv; cbn [add_fulls map flat_map].
  - exists dt. rewrite !app_nil_r. split; [reflexivity|exact Hv].
  - unfold op_of, one. cbn [step]. destruct (add_sample_one T dt l0 (mkMdat data [] 0 false) (fs_s s) (fs_dts s) Hv) as [dt1 [Hs Hv1]].
    rewrite Hs. cbn [rbind].
    destruct (IH dt1 (l0 ++ [fs_s s]) (data ++ fs_data s) Hv1) as [dt' [Ha Hv']].
    exists dt'. rewrite <- !app_assoc in Ha. split; [exact Ha|exact Hv'].
Qed.

Lemma b2n_le b : b2n b <= 1.
Proof. destruct b; cbn; lia. Qed.

Lemma trun_size_le r : trun_size r <= 24 + 16 * lenN (tr_samples r).
Proof.
  unfold trun_size. pose proof (b2n_le (has_doff r)). pose proof (b2n_le (has_fsf r)). pose proof (b2n_le (has_dur r)).
  pose proof (b2n_le (has_size r)). pose proof (b2n_le (has_sflags r)). pose proof (b2n_le (has_cto r)).
  assert (u32 (lenN (tr_samples r)) <= lenN (tr_samples r)) by (unfold u32; apply N.mod_le; discriminate). nia.
Qed.

Lemma tfhd_size_le h : tfhd_size h <= 40.
Proof.
  unfold tfhd_size. pose proof (b2n_le (tf_has_bdo h)). pose proof (b2n_le (tf_has_sdi h)).
  pose proof (b2n_le (tf_has_ddur h)). pose proof (b2n_le (tf_has_dsize h)). pose proof (b2n_le (tf_has_dflags h)). lia.
Qed.

Lemma moof_size_one h dt r m : td_version dt <= 1 ->
  32 <= moof_size (one_m h dt r m) <= 116 + 16 * lenN (tr_samples r).
Proof.
  intros Hv. unfold moof_size, one_m, traf_size. cbn [fr_trafs fr_moofx map sumN tf_hd tf_dt tf_truns tf_extra].
  pose proof (trun_size_le r). pose proof (tfhd_size_le h). unfold tfdt_size. lia.
Qed.

Lemma touch_id m : md_large m = false -> md_payload m <= 4294967287 -> md_size_touch m = m.
Proof.
  intros Hl Hp. unfold md_size_touch. destruct (4294967287 <? md_payload m) eqn:E; [lia|].
  rewrite Hl. destruct m as [d ps lz lg]. cbn in *. subst lg. reflexivity.
Qed.

Lemma set_offsets_one h dt r m : md_large m = false -> md_payload m <= 4294967287 ->
  set_offsets (one_m h dt r m) = one_m h dt (tr_with_doff r (i32 (moof_size (one_m h dt r m) + 8))) m.
Proof.
  intros Hl Hp. unfold set_offsets. cbn [one_m fr_trafs all_truns flat_map tf_truns app fr_mdat].
  change (1 <? lenN [r]) with false. rewrite andb_false_r. rewrite (touch_id m Hl Hp).
  unfold md_header_size. rewrite Hl.
  cbn [sort_won fold_right insert_won assign_offsets map lookup_off tf_hd tf_dt tf_truns tf_extra].
  rewrite N.eqb_refl. reflexivity.
Qed.

(* Encode without optimisation writes the one data offset: the mdat payload starts 8 bytes behind the moof *)
Lemma encode_one_plain h dt r m : td_version dt <= 1 -> has_doff r = true ->
  md_large m = false -> 16 * lenN (tr_samples r) + md_payload m + 200 < 2147483648 ->
  encode_frag false (one_m h dt r m) = Ok (one_m h dt (tr_with_doff r (Z.of_N (moof_size (one_m h dt r m) + 8))) m).
Proof.
  intros Hv Hdo Hlg Hsmall. pose proof (moof_size_one h dt r m Hv) as Hm.
  unfold encode_frag. cbn [rbind]. rewrite (set_offsets_one h dt r m Hlg ltac:(lia)). cbv zeta.
  set (base := moof_size (one_m h dt r m) + 8) in *.
  assert (Hi : i32 base = Z.of_N base).
  { unfold i32. rewrite N.mod_small by lia. destruct (base <? 2147483648) eqn:E; [reflexivity|lia]. }
  rewrite Hi. cbn [one_m fr_trafs tf_truns existsb all_truns flat_map fr_mdat fr_next].
  unfold doff_unset, has_doff in *. cbn [tr_with_doff tr_flags tr_doff]. rewrite Hdo.
  destruct (Z.of_N base =? 0)%Z eqn:Ez; [lia|]. cbn [andb orb].
  rewrite (touch_id m Hlg ltac:(lia)). reflexivity.
Qed.

(* what Encode returns: same mdat, header 8, nothing before the moof, moof size bounded by the sample count *)
Definition encoded_small (n : N) (m : mdat) (fe : frag) : Prop :=
  fr_mdat fe = m /\ fr_pre fe = 0 /\ moof_size fe <= 116 + 16 * n.

Lemma encode_one_m opt h dt r m :
  td_version dt <= 1 -> tr_samples r <> [] -> has_doff r = true ->
  md_large m = false -> 16 * lenN (tr_samples r) + md_payload m + 200 < 2147483648 ->
  exists fe, encode_frag opt (one_m h dt r m) = Ok fe /\ encoded_small (lenN (tr_samples r)) m fe.
Proof.
  intros Hv Hne Hdo Hlg Hsmall.
  assert (Hgen : forall h1 r1, tr_samples r1 = tr_samples r -> has_doff r1 = true ->
            exists fe, encode_frag false (one_m h1 dt r1 m) = Ok fe /\ encoded_small (lenN (tr_samples r)) m fe).
  { intros h1 r1 Hs1 Hd1. rewrite (encode_one_plain h1 dt r1 m Hv Hd1 Hlg) by (rewrite Hs1; exact Hsmall).
    eexists. split; [reflexivity|]. repeat split.
    pose proof (moof_size_one h1 dt r1 m Hv) as Hm. rewrite Hs1 in Hm. exact (proj2 Hm). }
  destruct opt; [|apply Hgen; [reflexivity|exact Hdo]].
  change (encode_frag true (one_m h dt r m)) with (do fr1 <- optimize_first (one_m h dt r m); encode_frag false fr1).
  unfold optimize_first. cbn [one_m fr_trafs tf_truns tf_hd].
  destruct (optimize_total h r Hne) as [[h' r'] Ho]. unfold optimize, FIXED_FSF. rewrite Ho. cbn [rbind].
  destruct (optimize_frame true h r h' r' Ho) as (_ & Hd' & Hs' & _). cbn [fst snd] in *.
  apply (Hgen h' r' Hs'). rewrite Hd'. exact Hdo.
Qed.

Lemma encode_one opt h dt r data pos0 :
  td_version dt <= 1 -> tr_samples r <> [] -> has_doff r = true ->
  16 * lenN (tr_samples r) + lenN data + 200 < 2147483648 -> pos0 < 4611686018427387904 ->
  exists fe, encode_frag opt (one h dt r data) = Ok fe /\ seg_guard pos0 fe = true.
Proof.
  intros Hv Hne Hdo Hsmall Hpos.
  destruct (encode_one_m opt h dt r (mkMdat data [] 0 false) Hv Hne Hdo eq_refl Hsmall) as [fe [He (Hm & Hp & Hs)]].
  exists fe. split; [exact He|]. unfold seg_guard. rewrite Hm, Hp. cbn [md_header_size md_large md_data].
  apply andb_true_intro. split; apply N.ltb_lt; lia.
Qed.

Lemma write_segment_total opt T (l : list fullsample) pos0 :
  l <> [] -> 16 * lenN l + lenN (flat_map fs_data l) + 200 < 2147483648 -> pos0 < 4611686018427387904 ->
  exists fe, write_segment opt T l = Ok fe /\ seg_guard pos0 fe = true.
Proof.
  intros Hne Hsmall Hpos. unfold write_segment.
  change (create_fragment T) with (one (create_tfhd T) (mkTfdt 0 0) (canon 0 []) []).
  destruct (add_fulls_one T l (mkTfdt 0 0) [] [] ltac:(cbn; lia)) as [dt' [Ha Hv]]. rewrite Ha. cbn [rbind app].
  apply (encode_one opt (create_tfhd T) dt' (canon 0 (map fs_s l)) (flat_map fs_data l) pos0); try assumption.
  - cbn [canon tr_samples]. destruct l; [congruence|discriminate].
  - reflexivity.
  - cbn [canon tr_samples]. unfold lenN in *. rewrite map_length. exact Hsmall.
Qed.

(* a bound on the INPUT: 16 bytes of trun per sample + the samples' bytes + headers stay below 2 GiB *)
Definition seg_small (tb : tables) (iv : N * N) : bool :=
  16 * (snd iv + 1 - fst iv) + S_total_size tb (fst iv) (snd iv) + 200 <? 2147483648.

Lemma seg_track_total opt f tb T pos0 : C09Spec.consistent tb = true -> data_ok f tb = true ->
  pos0 < 4611686018427387904 ->
  forall ivs, Forall (fun iv => all_in tb (C11Model.range iv)) ivs ->
  Forall (fun iv => fst iv <= snd iv + 1) ivs ->
  forallb (seg_small tb) ivs = true ->
  exists fes, seg_track opt f tb T ivs = Ok fes /\ Forall (fun fe => seg_guard pos0 fe = true) fes.
Proof.
  intros H Hd Hpos. induction ivs as [|iv ivs IH]; intros Hin Hord Hsm.
  - exists []. split; [reflexivity|constructor].
  - cbn [forallb] in Hsm. apply andb_prop in Hsm. destruct Hsm as [Hsm1 Hsm2].
    destruct (IH (Forall_inv_tail Hin) (Forall_inv_tail Hord) Hsm2) as [fes [Hs Hg]].
    apply Forall_inv in Hin. apply Forall_inv in Hord.
    destruct (fetch_or_skip_ok f tb iv H Hd Hord Hin) as (l & Hl & Hm).
    destruct (interval_facts f tb iv l H Hd Hord Hin Hm) as (_ & _ & Hlen & Hdl).
    cbn [seg_track]. rewrite Hl. cbn [rbind]. destruct l as [|x l']; [exists fes; split; assumption|].
    unfold seg_small in Hsm1. apply N.ltb_lt in Hsm1.
    destruct (write_segment_total opt T (x :: l') pos0) as [fe [Hw Hgf]]; [discriminate|lia|exact Hpos|].
    rewrite Hw, Hs. cbn [rbind]. exists (fe :: fes). split; [reflexivity|constructor; assumption].
Qed.

From V.c11 Require Import C11FragProofs C11ResegProofs.

Definition bytes_of (ss : list C11Model.fsample) : N := sumN (map (fun s => lenN (C11Model.fs_data s)) ss).

Lemma bytes_of_app a b : bytes_of (a ++ b) = bytes_of a + bytes_of b.
Proof. unfold bytes_of. rewrite map_app, sumN_app. reflexivity. Qed.

Lemma to_full_data_len l : lenN (flat_map fs_data (map to_full l)) = bytes_of l.
Proof.
  unfold bytes_of. induction l as [|s l IH]; [reflexivity|]. cbn [map flat_map sumN]. rewrite lenN_app, IH. reflexivity.
Qed.

Lemma write_pieces_total opt T pos0 : pos0 < 4611686018427387904 ->
  forall segs, 16 * lenN (concat segs) + bytes_of (concat segs) + 200 < 2147483648 ->
  exists fes, Forall2 (fun seg fe => write_segment opt T (map to_full seg) = Ok fe) (nonempty_pieces segs) fes /\
              Forall (fun fe => seg_guard pos0 fe = true) fes.
Proof.
  intros Hpos. induction segs as [|seg r IH]; intros Hb.
  - exists []. split; constructor.
  - cbn [concat] in Hb. rewrite lenN_app, bytes_of_app in Hb. destruct (IH ltac:(lia)) as [fes [Hw Hg]].
    destruct seg as [|s seg']; [exists fes; split; assumption|].
    destruct (write_segment_total opt T (map to_full (s :: seg')) pos0) as [fe [Hwe Hge]].
    + discriminate.
    + rewrite to_full_data_len. unfold lenN in *. rewrite map_length. lia.
    + exact Hpos.
    + exists (fe :: fes). cbn [nonempty_pieces filter]. split; constructor; assumption.
Qed.

(* ------------------------------------------------------------------ the -lazy writer, total form *)
From V.c11 Require Import C11LazyProofs.

Lemma add_metas_built T base : forall (metas : list sample) dt l lz, td_version dt <= 1 ->
  exists dt' lz', add_metas (one_m (create_tfhd T) dt (canon 0 l) (mkMdat [] [] lz false)) T base metas
                  = Ok (one_m (create_tfhd T) dt' (canon 0 (l ++ metas)) (mkMdat [] [] lz' false)) /\
                  td_version dt' <= 1 /\ lz' <= lz + sizes_sum metas.
Proof.
  induction metas as [|s metas IH]; intros dt l lz Hv; cbn [add_metas].
  - exists dt, lz. rewrite app_nil_r. repeat split; [exact Hv|unfold sizes_sum; cbn; lia].
  - cbn [step]. destruct (add_sample_one T dt l (mkMdat [] [] lz false) s base Hv) as [dt1 [Hs Hv1]]. rewrite Hs. cbn [rbind].
    destruct (IH dt1 (l ++ [s]) (u64 (lz + s_size s)) Hv1) as [dt' [lz' [Ha [Hv' Hl]]]].
    exists dt', lz'. rewrite <- app_assoc in Ha. split; [exact Ha|]. split; [exact Hv'|].
    assert (u64 (lz + s_size s) <= lz + s_size s) by (unfold u64; apply N.mod_le; discriminate).
    unfold sizes_sum in *. cbn [map sumN]. lia.
Qed.

Lemma sizes_sum_fulls (FL : list fullsample) : Forall sized_f FL -> sizes_sum (map fs_s FL) = lenN (flat_map fs_data FL).
Proof.
  unfold sizes_sum. induction 1 as [|x l Hx _ IH]; [reflexivity|]. cbn [map sumN flat_map]. rewrite lenN_app, IH.
  unfold sized_f in Hx. lia.
Qed.

Lemma write_lazy_total opt T base (FL : list fullsample) pos0 :
  FL <> [] -> Forall sized_f FL ->
  16 * lenN FL + lenN (flat_map fs_data FL) + 200 < 2147483648 -> pos0 < 4611686018427387904 ->
  exists fr fe, add_metas (create_fragment T) T base (map fs_s FL) = Ok fr /\ encode_frag opt fr = Ok fe /\
                lazy_guard pos0 (fe, flat_map fs_data FL) = true.
Proof.
  intros Hne Hsz Hsmall Hpos.
  change (create_fragment T) with (one_m (create_tfhd T) (mkTfdt 0 0) (canon 0 []) (mkMdat [] [] 0 false)).
  destruct (add_metas_built T base (map fs_s FL) (mkTfdt 0 0) [] 0 ltac:(cbn; lia)) as [dt' [lz' [Ha [Hv Hl]]]].
  rewrite (sizes_sum_fulls FL Hsz) in Hl. cbn [app] in Ha.
  destruct (encode_one_m opt (create_tfhd T) dt' (canon 0 (map fs_s FL)) (mkMdat [] [] lz' false)) as [fe [He (Hm & Hp & Hs)]].
  - exact Hv.
  - cbn [canon tr_samples]. destruct FL; [congruence|discriminate].
  - reflexivity.
  - reflexivity.
  - cbn [canon tr_samples]. unfold lenN at 1. rewrite map_length. fold (lenN FL).
    assert (md_payload (mkMdat [] [] lz' false) <= lz').
    { unfold md_payload, md_data_length. cbn [md_lazy md_parts md_data]. destruct (0 <? lz'); cbn; lia. }
    lia.
  - eexists. exists fe. split; [exact Ha|]. split; [exact He|].
    unfold lazy_guard. cbn [fst snd]. rewrite Hm, Hp. cbn [md_header_size md_large].
    cbn [canon tr_samples] in Hs. unfold lenN in Hs at 1. rewrite map_length in Hs. fold (lenN FL) in Hs.
    apply andb_true_intro. split; apply N.ltb_lt; lia.
Qed.

Lemma seg_track_lazy_total opt f tb T pos0 : C09Spec.consistent tb = true -> data_ok f tb = true ->
  one_offset_box tb = true -> pos0 < 4611686018427387904 ->
  forall ivs, Forall (fun iv => all_in tb (C11Model.range iv)) ivs ->
  Forall (fun iv => fst iv <= snd iv + 1) ivs ->
  forallb (seg_small tb) ivs = true ->
  exists outs, seg_track_lazy opt f tb T ivs = Ok outs /\ Forall (fun p => lazy_guard pos0 p = true) outs.
Proof.
  intros H Hd Hone Hpos. induction ivs as [|iv ivs IH]; intros Hin Hord Hsm.
  - exists []. split; [reflexivity|constructor].
  - cbn [forallb] in Hsm. apply andb_prop in Hsm. destruct Hsm as [Hsm1 Hsm2].
    destruct (IH (Forall_inv_tail Hin) (Forall_inv_tail Hord) Hsm2) as [outs [Hs Hg]].
    apply Forall_inv in Hin. apply Forall_inv in Hord.
    destruct (fetch_or_skip_ok f tb iv H Hd Hord Hin) as (l & _ & Hm).
    destruct (interval_facts f tb iv l H Hd Hord Hin Hm) as (Hsz & _ & Hlen & Hdl).
    cbn [seg_track_lazy]. rewrite (write_lazy_segment_spec opt f tb T iv l H Hd Hone Hord Hin Hm), Hs.
    destruct l as [|x l']; [exists outs; split; [reflexivity|exact Hg]|].
    unfold seg_small in Hsm1. apply N.ltb_lt in Hsm1.
    destruct (write_lazy_total opt T (fs_dts x) (x :: l') pos0) as [fr [fe [Hadd [Henc Hgl]]]];
      [discriminate|exact Hsz|lia|exact Hpos|].
    rewrite Hadd. cbn [rbind]. rewrite Henc. cbn [rbind].
    eexists. split; [reflexivity|constructor; assumption].
Qed.

(* Resegment's first piece is empty when the first sample already lies beyond the first boundary: the fragment is
   CreateFragment's, Encode without optimisation succeeds (with it, OptimizeTfhdTrun returns "no samples in trun"),
   and every reader gets no samples from it *)
Lemma frag_full_samples_nil h tx r base d : tr_samples r = [] ->
  frag_full_samples h tx [r] base d =
  (let bo0 := if tf_has_bdo h then tf_bdo h else df_moof_start d in
   let bo := if has_doff r then to_u64 (tr_doff r + Z.of_N bo0) else bo0 in
   let off := if 0 <? bo then u64 (bo + 18446744073709551616 - df_payload_abs d) else 0 in
   if (0 <? bo) && (lenN (df_data d) <? off) then Err else Ok []).
Proof.
  intros Hs. cbn [frag_full_samples]. unfold resolve. rewrite Hs. cbn [map_first]. cbv zeta.
  destruct ((0 <? (if has_doff r then to_u64 (tr_doff r + Z.of_N (if tf_has_bdo h then tf_bdo h else df_moof_start d))
                   else if tf_has_bdo h then tf_bdo h else df_moof_start d)) && _); reflexivity.
Qed.

Lemma write_segment_empty T pos0 : pos0 < 4611686018427387904 ->
  exists fe, write_segment false T [] = Ok fe /\ forall tx : C05Model.trex, read_back tx pos0 [] fe = Ok [].
Proof.
  intros Hpos. unfold write_segment. cbn [add_fulls rbind].
  change (create_fragment T) with (one_m (create_tfhd T) (mkTfdt 0 0) (canon 0 []) (mkMdat [] [] 0 false)).
  rewrite (encode_one_plain (create_tfhd T) (mkTfdt 0 0) (canon 0 []) (mkMdat [] [] 0 false)) by (cbn; lia || reflexivity).
  change (Z.of_N (moof_size (one_m (create_tfhd T) (mkTfdt 0 0) (canon 0 []) (mkMdat [] [] 0 false)) + 8)) with 92%Z.
  eexists. split; [reflexivity|]. intros tx.
  unfold read_back, get_full_samples, decoded_view, fr_with, one_m.
  cbn [fr_trafs fr_mdat fr_pre fr_moofx fr_post map tf_hd tf_dt tf_truns tf_extra df_trafs find create_tfhd tf_track].
  destruct (T =? tx_track tx); [|reflexivity]. cbn [rbind].
  cbn [tf_hd tf_truns tf_dt td_base one_m fr_pre fr_moofx fr_post].
  rewrite frag_full_samples_nil by reflexivity. cbv zeta.
  cbn [df_moof_start df_payload_abs df_data md_lazy md_written md_parts md_data md_header_size md_large].
  change (has_doff (wire_trun (tr_with_doff (canon 0 []) 92))) with true.
  change (tr_doff (wire_trun (tr_with_doff (canon 0 []) 92))) with 92%Z.
  change (tf_has_bdo (create_tfhd T)) with false. cbv iota.
  change (moof_size (mkFrag [mkTraf (create_tfhd T) (mkTfdt 0 0) [tr_with_doff (canon 0 []) 92] 0]
                            (mkMdat [] [] 0 false) 1 0 0 0)) with 84.
  assert (Hbo : to_u64 (92 + Z.of_N (pos0 + 0)) = pos0 + 92).
  { unfold to_u64. rewrite Z.mod_small by lia. lia. }
  rewrite Hbo.
  assert (Hoff : u64 (pos0 + 92 + 18446744073709551616 - (pos0 + 0 + 84 + 8)) = 0).
  { replace (pos0 + 92 + 18446744073709551616 - (pos0 + 0 + 84 + 8)) with 18446744073709551616 by lia. reflexivity. }
  rewrite Hoff. destruct (0 <? pos0 + 92); cbn; reflexivity.
Qed.


Lemma insert_empties T pos0 (tx : C05Model.trex) : pos0 < 4611686018427387904 ->
  forall (segs : list (list C11Model.fsample)) fes' outs',
  Forall2 (fun seg fe => write_segment false T (map to_full seg) = Ok fe) (nonempty_pieces segs) fes' ->
  read_all (read_back tx pos0 []) fes' = Ok outs' ->
  exists fes outs, Forall2 (fun seg fe => write_segment false T (map to_full seg) = Ok fe) segs fes /\
                   read_all (read_back tx pos0 []) fes = Ok outs /\ concat outs = concat outs'.
Proof.
  intros Hpos. induction segs as [|seg r IH]; intros fes' outs' Hw Hr.
  - cbn in Hw. inversion Hw; subst. cbn in Hr. injection Hr as <-. exists [], []. repeat split. constructor.
  - destruct seg as [|s seg'].
    + cbn [nonempty_pieces filter] in Hw. destruct (IH fes' outs' Hw Hr) as [fes [outs [H1 [H2 H3]]]].
      destruct (write_segment_empty T pos0 Hpos) as [fe0 [Hw0 Hr0]].
      exists (fe0 :: fes), ([] :: outs). split; [constructor; [exact Hw0|exact H1]|]. split.
      * cbn [read_all]. rewrite (Hr0 tx). cbn [rbind]. rewrite H2. reflexivity.
      * exact H3.
    + cbn [nonempty_pieces filter] in Hw. inversion Hw as [|? fe ? fes1 Hw1 Hw2]; subst.
      cbn [read_all] in Hr. destruct (read_back tx pos0 [] fe) as [o| | |] eqn:Eo; cbn [rbind] in Hr; try discriminate.
      destruct (read_all (read_back tx pos0 []) fes1) as [rest| | |] eqn:Er; cbn [rbind] in Hr; try discriminate.
      injection Hr as <-. destruct (IH fes1 rest Hw2 Er) as [fes [outs [H1 [H2 H3]]]].
      exists (fe :: fes), (o :: outs). split; [constructor; assumption|]. split.
      * cbn [read_all]. rewrite Eo. cbn [rbind]. rewrite H2. reflexivity.
      * cbn [concat]. rewrite H3. reflexivity.
Qed.

(* Resegment as the tool runs it (no trun optimisation): EVERY output segment, the possibly empty first one
   included, is written without error, and the decoded segments concatenate to the input *)
