(* C11MuxProofs.v — makeMultiTrackSegments end to end: every segment is one multi-track fragment
   (CreateMultiTrackFragment, then per track in order AddFullSampleToTrack of the track's interval); reading any
   track back from the written segments gives that track's expansion (C05_roundtrip, multi-track form). *)
From V.lib Require Import Base.
From V.c11 Require Import C11Model C11SegProofs.
From V.c09 Require Import C09Model C09Spec.
From V.c05 Require Import C05Model C05FragModel C05HistProofs C05GhostProofs C05ReadProofs C05RoundProofs C05Theorems.
From V.c11 Require Import C11FetchModel C11Spec C11FetchProofs C11PipeProofs C11FragProofs.

Definition st_tb (t : strack) : tables := fst (fst t).
Definition st_id (t : strack) : N := snd (fst t).
Definition st_ivs (t : strack) : list (N * N) := snd t.

Definition ops_of (g : list (N * list fullsample)) : list op := flat_map (fun p => map (op_of (fst p)) (snd p)) g.
Definition pick_track (T : N) (g : list (N * list fullsample)) : list fullsample :=
  flat_map (fun p => if fst p =? T then snd p else []) g.

Lemma run_ops_app : forall o1 fr cs1 fr1 o2, run_ops fr o1 = (cs1, Some fr1) ->
  exists cs2, run_ops fr (o1 ++ o2) = (cs1 ++ cs2, snd (run_ops fr1 o2)) /\ cs2 = fst (run_ops fr1 o2).
Proof.
  induction o1 as [|o o1 IH]; intros fr cs1 fr1 o2 H; cbn [run_ops app] in *.
  - injection H as <- <-. eexists. split; [|reflexivity]. cbn [app]. destruct (run_ops fr o2). reflexivity.
  - destruct (step fr o) as [fr'| | |] eqn:E.
    + destruct (run_ops fr' o1) as [cs r] eqn:E1. injection H as <- ->.
      destruct (IH fr' cs fr1 o2 E1) as [cs2 [H2 Hc]]. rewrite H2. eexists. split; [reflexivity|exact Hc].
    + destruct (run_ops fr o1) as [cs r] eqn:E1. injection H as <- ->.
      destruct (IH fr cs fr1 o2 E1) as [cs2 [H2 Hc]]. rewrite H2. eexists. split; [reflexivity|exact Hc].
    + discriminate.
    + discriminate.
Qed.

Lemma mux_add_run : forall g fr fr', mux_add fr g = Ok fr' -> exists cs, run_ops fr (ops_of g) = (cs, Some fr').
Proof.
  induction g as [|[T l] g IH]; intros fr fr' H; cbn [mux_add] in H.
  - injection H as <-. exists []. reflexivity.
  - destruct (add_fulls fr T l) as [fr1| | |] eqn:E; cbn [rbind] in H; try discriminate.
    apply add_fulls_run in E. destruct (IH fr1 fr' H) as [cs2 H2].
    unfold ops_of. cbn [flat_map fst snd]. fold (ops_of g).
    destruct (run_ops_app _ _ _ _ (ops_of g) E) as [cs' [H3 _]]. rewrite H3, H2. eexists. reflexivity.
Qed.

Lemma added_fulls_app tracks T o1 o2 : added_fulls tracks T (o1 ++ o2) = added_fulls tracks T o1 ++ added_fulls tracks T o2.
Proof. unfold added_fulls. apply flat_map_app. Qed.

Lemma added_fulls_run tracks T T' l : existsb (N.eqb T') tracks = true ->
  added_fulls tracks T (map (op_of T') l) = if T' =? T then l else [].
Proof.
  intros Hin. unfold added_fulls. induction l as [|s l IH]; [destruct (T' =? T); reflexivity|].
  cbn [map flat_map]. unfold op_of at 1. cbn [op_track]. rewrite Hin, andb_true_r, IH.
  destruct (T' =? T); [|reflexivity]. cbn [app]. f_equal. destruct s as [s t d]. reflexivity.
Qed.

Lemma added_fulls_ops tracks T : forall g, (forall p, In p g -> In (fst p) tracks) ->
  added_fulls tracks T (ops_of g) = pick_track T g.
Proof.
  induction g as [|[T' l] g IH]; intros Hin; [reflexivity|].
  unfold ops_of, pick_track. cbn [flat_map fst snd]. fold (ops_of g). fold (pick_track T g).
  rewrite added_fulls_app, added_fulls_run, IH; [reflexivity| |].
  - intros p Hp. apply Hin. right. exact Hp.
  - apply existsb_eqb_in. apply (Hin (T', l)). left. reflexivity.
Qed.

Lemma ops_full_to g : forallb is_full_to (ops_of g) = true.
Proof.
  unfold ops_of. induction g as [|[T l] g IH]; [reflexivity|]. cbn [flat_map fst snd].
  rewrite forallb_app, IH, andb_true_r. clear. induction l as [|s l IH]; [reflexivity|exact IH].
Qed.

Lemma ops_sized g : Forall (fun p => Forall sized_f (snd p)) g -> Forall (fun o => sized_f (op_full o)) (ops_of g).
Proof.
  intros Hsz. unfold ops_of. induction Hsz as [|[T l] g Hl _ IH]; [constructor|]. cbn [flat_map fst snd] in *.
  apply Forall_app. split; [|exact IH]. clear - Hl. induction Hl as [|s l Hs _ IH]; [constructor|].
  cbn [map]. constructor; [destruct s as [s t d]; exact Hs|exact IH].
Qed.

Lemma set_extras_nil ts : set_extras ts [] = ts.
Proof. destruct ts; reflexivity. Qed.

Lemma write_read_mux opt ids g fe pos0 (tx : C05Model.trex) :
  NoDup ids -> map fst g = ids ->
  N.of_nat (length (ops_of g)) < 4294967296 ->
  Forall (fun p => Forall sized_f (snd p)) g ->
  C05RoundProofs.consistent (pick_track (tx_track tx) g) ->
  write_mux_segment opt ids g = Ok fe -> seg_guard pos0 fe = true ->
  read_back tx pos0 [] fe = Ok (pick_track (tx_track tx) g).
Proof.
  intros Hnd Hids Hlen Hsz Hc Hw Hg. unfold write_mux_segment in Hw.
  destruct (mux_add (create_multi ids) g) as [fr| | |] eqn:Ea; cbn [rbind] in Hw; try discriminate.
  destruct (mux_add_run _ _ _ Ea) as [cs Hrun]. unfold seg_guard in Hg. apply andb_prop in Hg. destruct Hg as [Hg1 Hg2].
  pose proof (encode_frag_data opt fr fe Hw) as Hdat.
  assert (Hin : forall p, In p g -> In (fst p) ids) by (intros p Hp; rewrite <- Hids; apply in_map; exact Hp).
  unfold read_back.
  rewrite (C05_roundtrip ids 0 0 0 [] (ops_of g) cs fr opt fe pos0 tx); try assumption.
  - rewrite added_fulls_ops by exact Hin. reflexivity.
  - apply ops_full_to.
  - apply ops_sized, Hsz.
  - unfold with_extras. cbn [create_multi fr_trafs fr_mdat fr_next]. rewrite set_extras_nil. exact Hrun.
  - rewrite <- Hdat. lia.
  - lia.
  - rewrite added_fulls_ops by exact Hin. exact Hc.
Qed.

Definition track_ok (f : pfile) (t : strack) : Prop :=
  C09Spec.consistent (st_tb t) = true /\ data_ok f (st_tb t) = true /\
  Forall (fun iv => all_in (st_tb t) (C11Model.range iv)) (st_ivs t).

Lemma mux_gather_spec f k : forall trs g, Forall (track_ok f) trs -> mux_gather f trs k = Ok g ->
  Forall2 (fun t p => fst p = st_id t /\
                      exists iv, nth_error (st_ivs t) k = Some iv /\ reads_as f (st_tb t) iv (snd p) /\
                                 Forall sized_f (snd p) /\ C05RoundProofs.consistent (snd p) /\
                                 lenN (snd p) <= nsamples (st_tb t)) trs g.
Proof.
  induction trs as [|[[tb T] ivs] trs IH]; intros g Hok Hg; cbn [mux_gather] in Hg.
  - injection Hg as <-. constructor.
  - inversion Hok as [|? ? [H [Hd Hin]] Hok']; subst. unfold st_tb, st_id, st_ivs in *. cbn [fst snd] in *.
    destruct (nth_error ivs k) as [iv|] eqn:En; [|discriminate].
    apply rbind_ok in Hg. destruct Hg as (l & Hl & Hg). apply rbind_ok in Hg. destruct Hg as (rest & Hr & Hg).
    injection Hg as <-. constructor; [|exact (IH rest Hok' Hr)].
    rewrite Forall_forall in Hin. pose proof (Hin iv (nth_error_In _ _ En)) as Hiv.
    destruct (fetch_or_skip_reads f tb iv l H Hd Hiv Hl) as [Ho Hm].
    destruct (interval_facts f tb iv l H Hd Ho Hiv Hm) as (Hsz & Hc & Hlen & _).
    pose proof (interval_length_le tb iv Hiv). cbn [fst snd]. split; [reflexivity|]. exists iv. repeat split; try assumption. lia.
Qed.

Lemma Forall2_in_l {A B} (P : A -> B -> Prop) x : forall l l2, In x l -> Forall2 P l l2 -> exists y, In y l2 /\ P x y.
Proof.
  induction l as [|a l IH]; intros l2 Hin H; [contradiction|]. inversion H as [|? y ? l2' Hp Hr]; subst.
  destruct Hin as [->|Hin]; [exists y; split; [left; reflexivity|exact Hp]|].
  destruct (IH l2' Hin Hr) as [y' [Hy Hp']]. exists y'. split; [right; exact Hy|exact Hp'].
Qed.

Definition total_samples (trs : list strack) : N := sumN (map (fun t => nsamples (st_tb t)) trs).

Lemma gather_facts f k trs g :
  Forall2 (fun t p => fst p = st_id t /\
                      exists iv, nth_error (st_ivs t) k = Some iv /\
                                 reads_as f (st_tb t) iv (snd p) /\
                                 Forall sized_f (snd p) /\ C05RoundProofs.consistent (snd p) /\
                                 lenN (snd p) <= nsamples (st_tb t)) trs g ->
  map fst g = map st_id trs /\ Forall (fun p => Forall sized_f (snd p)) g /\
  N.of_nat (length (ops_of g)) <= total_samples trs.
Proof.
  induction 1 as [|t p trs g [Hid [iv [_ [_ [Hsz [_ Hlen]]]]]] _ IH]; [repeat split; [constructor|cbn; lia]|].
  destruct IH as [IH1 [IH2 IH3]]. split; [cbn [map]; rewrite Hid, IH1; reflexivity|]. split; [constructor; assumption|].
  unfold ops_of, total_samples in *. cbn [flat_map map sumN]. rewrite app_length, map_length. unfold lenN in Hlen. lia.
Qed.

Definition ivs_at (t : strack) (ks : list nat) : list N :=
  flat_map (fun k => match nth_error (st_ivs t) k with Some iv => C11Model.range iv | None => [] end) ks.

Lemma mux_loop_read opt f pos0 trs :
  NoDup (map st_id trs) -> Forall (track_ok f) trs -> total_samples trs < 4294967296 ->
  forall t (tx : C05Model.trex), In t trs -> tx_track tx = st_id t ->
  forall ks fes, mux_loop opt f (map st_id trs) trs ks = Ok fes ->
  Forall (fun fe => seg_guard pos0 fe = true) fes ->
  exists outs, read_all (read_back tx pos0 []) fes = Ok outs /\
               map Some (concat outs) = map (S_full f (st_tb t)) (ivs_at t ks).
Proof.
  intros Hnd Hok Htot t tx Hin Htx. induction ks as [|k ks IH]; intros fes Hl Hg; cbn [mux_loop] in Hl.
  - injection Hl as <-. exists []. split; reflexivity.
  - destruct (mux_gather f trs k) as [g| | |] eqn:Eg; cbn [rbind] in Hl; try discriminate.
    destruct (write_mux_segment opt (map st_id trs) g) as [fe| | |] eqn:Ew; cbn [rbind] in Hl; try discriminate.
    destruct (mux_loop opt f (map st_id trs) trs ks) as [rest| | |] eqn:Er; cbn [rbind] in Hl; try discriminate.
    injection Hl as <-.
    pose proof (Forall_inv Hg) as Hg1. pose proof (Forall_inv_tail Hg) as Hg2. cbv beta in Hg1.
    destruct (IH rest eq_refl Hg2) as [outs [Hr Hc]].
    pose proof (mux_gather_spec f k trs g Hok Eg) as Hspec.
    destruct (gather_facts f k trs g Hspec) as [Hids [Hsz Hlen]].
    destruct (Forall2_in_l _ t trs g Hin Hspec) as [p [Hp [Hpid [iv [Hiv [Hm [_ [Hcons _]]]]]]]].
    assert (Hpick : pick_track (tx_track tx) g = snd p).
    { apply pick_unique; [rewrite Hids; exact Hnd|]. rewrite Htx, <- Hpid. destruct p; exact Hp. }
    assert (Hrb : read_back tx pos0 [] fe = Ok (snd p)).
    { rewrite (write_read_mux opt (map st_id trs) g fe pos0 tx); try assumption.
      - rewrite Hpick. reflexivity.
      - lia.
      - rewrite Hpick. exact Hcons. }
    exists (snd p :: outs). split; [apply read_all_app; assumption|].
    cbn [concat]. unfold ivs_at. cbn [flat_map]. fold (ivs_at t ks). rewrite Hiv, !map_app, Hm, Hc. reflexivity.
Qed.

Lemma ivs_at_all t : ivs_at t (seq 0 (length (st_ivs t))) = concat (map C11Model.range (st_ivs t)).
Proof.
  unfold ivs_at. generalize (st_ivs t) as l. clear.
  assert (G : forall (l : list (N * N)) pre,
            flat_map (fun k => match nth_error (pre ++ l) k with Some iv => C11Model.range iv | None => [] end)
                     (seq (length pre) (length l)) = concat (map C11Model.range l)).
  { induction l as [|iv l IH]; intros pre; [reflexivity|]. cbn [length seq flat_map map concat].
    rewrite nth_error_app2 by lia. rewrite Nat.sub_diag. cbn [nth_error]. f_equal.
    specialize (IH (pre ++ [iv])). rewrite <- app_assoc in IH. cbn [app] in IH.
    rewrite app_length in IH. cbn [length] in IH. replace (length pre + 1)%nat with (S (length pre)) in IH by lia.
    exact IH. }
  intros l. apply (G l []).
Qed.

(* every track of a multiplexed output reads back as its expansion *)
Lemma mux_end_to_end_all opt f pos0 trs nsegs fes :
  NoDup (map st_id trs) -> total_samples trs < 4294967296 -> (1 <= nsegs)%nat ->
  Forall (fun t => C09Spec.consistent (st_tb t) = true /\ data_ok f (st_tb t) = true /\
                   length (st_ivs t) = nsegs /\
                   concat (map C11Model.range (st_ivs t)) = seqN1 (nsamples (st_tb t))) trs ->
  mux_segments opt f trs nsegs = Ok fes ->
  Forall (fun fe => seg_guard pos0 fe = true) fes ->
  Forall (fun t => forall tx : C05Model.trex, tx_track tx = st_id t ->
            exists outs, read_all (read_back tx pos0 []) fes = Ok outs /\
                         map Some (concat outs) = expansion f (st_tb t)) trs.
Proof.
  intros Hnd Htot Hn Hall Hs Hg. unfold mux_segments in Hs. replace (Nat.max 1 nsegs) with nsegs in Hs by lia.
  assert (Hok : Forall (track_ok f) trs).
  { rewrite Forall_forall in *. intros t Ht. destruct (Hall t Ht) as [H [Hd [_ Htile]]].
    split; [exact H|]. split; [exact Hd|exact (tile_all_in _ _ Htile)]. }
  rewrite Forall_forall. intros t Ht tx Htx.
  change (map (fun t0 : strack => snd (fst t0)) trs) with (map st_id trs) in Hs.
  destruct (mux_loop_read opt f pos0 trs Hnd Hok Htot t tx Ht Htx _ fes Hs Hg) as [outs [Hr Hc]].
  exists outs. split; [exact Hr|]. rewrite Forall_forall in Hall. destruct (Hall t Ht) as [_ [_ [Hlen Htile]]].
  rewrite <- Hlen, ivs_at_all in Hc. rewrite Hc. apply tile_expansion, Htile.
Qed.

(* the plan gives every track the same number of intervals *)
Lemma intervals_loop_length syncTs trk last_end : forall sps start next ivs,
  intervals_loop syncTs trk last_end sps start next = Ok ivs -> length ivs = length sps.
Proof.
  induction sps as [|sp sps IH]; intros start next ivs H; cbn [intervals_loop] in H.
  - injection H as <-. reflexivity.
  - destruct sps as [|sp2 rest].
    + injection H as <-. reflexivity.
    + destruct (syncTs =? 0); [discriminate|].
      apply rbind_ok in H. destruct H as (n & _ & H). apply rbind_ok in H. destruct H as (r & Hr & H).
      injection H as <-. cbn [length]. f_equal. apply (IH _ _ _ Hr).
Qed.

Lemma fetch_loop_length f tb : forall k nr l, fetch_loop f tb k nr = Ok l -> length l = k.
Proof.
  induction k as [|k IH]; intros nr l H; cbn [fetch_loop] in H.
  - injection H as <-. reflexivity.
  - apply rbind_ok in H. destruct H as (s & _ & H). apply rbind_ok in H. destruct H as (r & Hr & H).
    injection H as <-. cbn [length]. f_equal. apply (IH _ _ Hr).
Qed.

Definition fetched (f : pfile) (tb : tables) (iv : N * N) : Prop :=
  exists l, fetch_interval f tb (fst iv) (snd iv) = Ok l /\ lenN l = snd iv + 1 - fst iv.

Lemma fetch_or_skip_fetched f tb iv l : fetch_or_skip f tb iv = Ok l -> fetched f tb iv.
Proof.
  intros H. exists l. split; [exact H|]. unfold fetch_or_skip, fetch_interval in H.
  destruct (snd iv + 1 <? fst iv); [discriminate|]. apply fetch_loop_length in H. unfold lenN. lia.
Qed.

Lemma seg_track_fetched opt f tb T : forall ivs fes, seg_track opt f tb T ivs = Ok fes -> Forall (fetched f tb) ivs.
Proof.
  induction ivs as [|iv ivs IH]; intros fes H; [constructor|]. cbn [seg_track] in H.
  apply rbind_ok in H. destruct H as (l & Hl & H). constructor; [apply (fetch_or_skip_fetched _ _ _ _ Hl)|].
  destruct l as [|x l'].
  - apply (IH _ H).
  - apply rbind_ok in H. destruct H as (fe & _ & H). apply rbind_ok in H. destruct H as (r & Hr & _). apply (IH _ Hr).
Qed.

Lemma mux_gather_fetched f k : forall trs g, mux_gather f trs k = Ok g ->
  Forall (fun t => exists iv, nth_error (st_ivs t) k = Some iv /\ fetched f (st_tb t) iv) trs.
Proof.
  induction trs as [|[[tb T] ivs] trs IH]; intros g H; [constructor|]. cbn [mux_gather] in H.
  destruct (nth_error ivs k) as [iv|] eqn:En; [|discriminate].
  apply rbind_ok in H. destruct H as (l & Hl & H). apply rbind_ok in H. destruct H as (r & Hr & _).
  constructor; [|apply (IH _ Hr)]. exists iv. split; [exact En|apply (fetch_or_skip_fetched _ _ _ _ Hl)].
Qed.

Lemma mux_loop_fetched opt f ids trs : forall ks fes, mux_loop opt f ids trs ks = Ok fes ->
  forall k, In k ks -> Forall (fun t => exists iv, nth_error (st_ivs t) k = Some iv /\ fetched f (st_tb t) iv) trs.
Proof.
  induction ks as [|k0 ks IH]; intros fes H k Hk; [contradiction|]. cbn [mux_loop] in H.
  apply rbind_ok in H. destruct H as (g & Hg & H).
  apply rbind_ok in H. destruct H as (fe & _ & H). apply rbind_ok in H. destruct H as (rest & Hr & _).
  destruct Hk as [<-|Hk]; [apply (mux_gather_fetched _ _ _ _ Hg)|apply (IH _ Hr _ Hk)].
Qed.

