(* C11InitProofs.v — the init segments written by the segmenter (one per track / multiplexed), the resegmenter
   (passed through) and combine-segs (merged) describe the same tracks as their inputs. *)
From V.lib Require Import Base.
From V.c11 Require Import C11SegProofs C11InitModel.

(* a track the segmenter supports: one sample entry of a kind the copy block looks for *)
Definition entry_supported (t : itrak) : bool :=
  match it_entries t with
  | [e] => if it_hdlr t =? H_SOUN then (se_kind e =? K_MP4A) || (se_kind e =? K_AC3) || (se_kind e =? K_EC3)
           else (se_kind e =? K_AVC) || (se_kind e =? K_HVC)
  | _ => false
  end.

Lemma copy_entry_supported t : entry_supported t = true -> copy_entry (it_hdlr t) (it_entries t) = Ok (it_entries t).
Proof.
  unfold entry_supported, copy_entry, last_of_kind. destruct (it_entries t) as [|e [|e2 r]]; try discriminate.
  cbn [rev app find]. destruct (it_hdlr t =? H_SOUN); intros H.
  - destruct (se_kind e =? K_MP4A) eqn:E1; [reflexivity|]. destruct (se_kind e =? K_AC3) eqn:E2; [reflexivity|].
    destruct (se_kind e =? K_EC3) eqn:E3; [reflexivity|discriminate].
  - destruct (se_kind e =? K_AVC) eqn:E1; [reflexivity|]. destruct (se_kind e =? K_HVC) eqn:E2; [reflexivity|discriminate].
Qed.

Lemma find_rev_in {A} (p : A -> bool) l x : find p (rev l) = Some x -> In x l.
Proof. intros H. apply find_some in H. apply in_rev. exact (proj1 H). Qed.

(* whatever the stsd holds: when the copy block succeeds it yields exactly one entry, and it is one of the input's *)
Lemma copy_entry_from_input h es out : copy_entry h es = Ok out -> exists e, out = [e] /\ In e es.
Proof.
  unfold copy_entry, last_of_kind. intros H.
  destruct (h =? H_SOUN).
  - destruct (find (fun e => se_kind e =? K_MP4A) (rev es)) as [e|] eqn:E1; [injection H as <-; exists e; split; [reflexivity|exact (find_rev_in _ _ _ E1)]|].
    destruct (find (fun e => se_kind e =? K_AC3) (rev es)) as [e|] eqn:E2; [injection H as <-; exists e; split; [reflexivity|exact (find_rev_in _ _ _ E2)]|].
    destruct (find (fun e => se_kind e =? K_EC3) (rev es)) as [e|] eqn:E3; [injection H as <-; exists e; split; [reflexivity|exact (find_rev_in _ _ _ E3)]|discriminate].
  - destruct (find (fun e => se_kind e =? K_AVC) (rev es)) as [e|] eqn:E1; [injection H as <-; exists e; split; [reflexivity|exact (find_rev_in _ _ _ E1)]|].
    destruct (find (fun e => se_kind e =? K_HVC) (rev es)) as [e|] eqn:E2; [injection H as <-; exists e; split; [reflexivity|exact (find_rev_in _ _ _ E2)]|discriminate].
Qed.

Lemma seg_inits_shape : forall ts outs, seg_inits_with copy_entry ts = Ok outs ->
  Forall2 (fun t o => exists e, In e (it_entries t) /\
                      o = mkInit [mkITrak 1 (it_hdlr t) (it_timescale t) [e]] (Some [create_trex 1])) ts outs.
Proof.
  induction ts as [|t ts IH]; intros outs H; cbn [seg_inits_with] in H; [injection H as <-; constructor|].
  destruct (copy_entry (it_hdlr t) (it_entries t)) as [es| | |] eqn:Ec; cbn [rbind] in H; try discriminate.
  destruct (seg_inits_with copy_entry ts) as [rest| | |] eqn:Er; cbn [rbind] in H; try discriminate.
  injection H as <-. destruct (copy_entry_from_input _ _ _ Ec) as [e [-> Hin]].
  constructor; [exists e; split; [exact Hin|reflexivity]|apply IH; reflexivity].
Qed.

(* whenever MakeInitSegments returns, every init carries handler, timescale and ONE sample entry of its input track,
   with a trex for the id the media segments use *)
Lemma seg_inits_never_drop ts outs : seg_inits ts = Ok outs ->
  Forall2 (fun t o => exists e tk, In e (it_entries t) /\ find_trak o 1 = Some tk /\ it_hdlr tk = it_hdlr t /\
                      it_timescale tk = it_timescale t /\ it_entries tk = [e] /\
                      find_trex o (seg_track_id false 0) = Some (create_trex 1)) ts outs.
Proof.
  unfold seg_inits. destruct (forallb hdlr_ok ts); [|discriminate]. intros H.
  pose proof (seg_inits_shape ts outs H) as HF. clear H. induction HF as [|t o ts' outs' [e [Hin ->]] _ IH]; [constructor|].
  constructor; [|exact IH]. exists e. eexists. split; [exact Hin|]. repeat split; reflexivity.
Qed.

(* total form: supported tracks *)
Lemma seg_inits_total ts : forallb hdlr_ok ts = true -> forallb entry_supported ts = true ->
  exists outs, seg_inits ts = Ok outs /\
    Forall2 (fun t o => same_track t None o 1 /\ find_trex o 1 = Some (create_trex 1)) ts outs.
Proof.
  intros Hh Hs. unfold seg_inits. rewrite Hh. clear Hh. induction ts as [|t ts IH]; [exists []; split; [reflexivity|constructor]|].
  cbn [forallb] in Hs. apply andb_prop in Hs. destruct Hs as [Ht Hs]. destruct (IH Hs) as [outs [Ho Hf]].
  cbn [seg_inits_with]. rewrite (copy_entry_supported t Ht). cbn [rbind]. rewrite Ho. cbn [rbind].
  eexists. split; [reflexivity|]. constructor; [|exact Hf]. split; [|reflexivity].
  eexists. split; [reflexivity|]. repeat split; reflexivity.
Qed.

(* multiplexed init *)
Lemma seg_mux_traks_spec : forall ts k p, seg_mux_traks ts k = Ok p ->
  length (fst p) = length ts /\ length (snd p) = length ts /\
  forall i t, nth_error ts i = Some t ->
    exists e, In e (it_entries t) /\
      nth_error (fst p) i = Some (mkITrak (k + N.of_nat i + 1) (it_hdlr t) (it_timescale t) [e]) /\
      nth_error (snd p) i = Some (create_trex (k + N.of_nat i + 1)).
Proof.
  induction ts as [|t ts IH]; intros k p H; cbn [seg_mux_traks] in H.
  - injection H as <-. repeat split. intros [|i] t H; discriminate.
  - destruct (copy_entry (it_hdlr t) (it_entries t)) as [es| | |] eqn:Ec; cbn [rbind] in H; try discriminate.
    destruct (seg_mux_traks ts (k + 1)) as [rest| | |] eqn:Er; cbn [rbind] in H; try discriminate.
    injection H as <-. destruct (IH _ _ Er) as [L1 [L2 Hn]]. cbn [fst snd length]. split; [lia|]. split; [lia|].
    destruct (copy_entry_from_input _ _ _ Ec) as [e [-> Hin]].
    intros [|i] t' Ht'; cbn [nth_error] in *.
    + injection Ht' as <-. exists e. split; [exact Hin|]. rewrite N.add_0_r. split; reflexivity.
    + destruct (Hn i t' Ht') as [e' [Hin' [H1 H2]]]. exists e'. split; [exact Hin'|].
      replace (k + N.of_nat (S i) + 1) with (k + 1 + N.of_nat i + 1) by lia. split; assumption.
Qed.

Lemma find_nth_unique {A} (key : A -> N) (l : list A) : forall i x,
  nth_error l i = Some x -> (forall j y, nth_error l j = Some y -> key y = key x -> j = i) ->
  find (fun y => key y =? key x) l = Some x.
Proof.
  induction l as [|a l IH]; intros i x Hn Hu; [destruct i; discriminate|]. cbn [find].
  destruct (key a =? key x) eqn:E.
  - apply N.eqb_eq in E. pose proof (Hu O a eq_refl E) as Hi. subst i. cbn in Hn. congruence.
  - destruct i as [|i]; [cbn in Hn; injection Hn as ->; rewrite N.eqb_refl in E; discriminate|].
    apply (IH i x Hn). intros j y Hj Hk. specialize (Hu (S j) y Hj Hk). lia.
Qed.

Lemma seg_mux_init_same ts o : seg_mux_init ts = Ok o ->
  forall i t, nth_error ts i = Some t ->
    let T := seg_track_id true i in
    exists e tk, In e (it_entries t) /\ find_trak o T = Some tk /\ it_hdlr tk = it_hdlr t /\
                 it_timescale tk = it_timescale t /\ it_entries tk = [e] /\ find_trex o T = Some (create_trex T).
Proof.
  unfold seg_mux_init. destruct (forallb hdlr_ok ts); [|discriminate].
  destruct (seg_mux_traks ts 0) as [p| | |] eqn:E; cbn [rbind]; try discriminate. intros H. injection H as <-.
  destruct (seg_mux_traks_spec ts 0 p E) as [L1 [L2 Hn]]. intros i t Ht. set (T := seg_track_id true i).
  destruct (Hn i t Ht) as [e [Hin [H1 H2]]]. cbn [N.add] in H1, H2.
  replace (0 + N.of_nat i + 1) with T in H1, H2 by (unfold T, seg_track_id; lia).
  exists e. exists (mkITrak T (it_hdlr t) (it_timescale t) [e]). split; [exact Hin|]. unfold find_trak, find_trex. cbn [in_traks in_mvex].
  split; [|split; [reflexivity|split; [reflexivity|split; [reflexivity|]]]].
  - apply (find_nth_unique it_id (fst p) i _ H1). intros j y Hj Hk. cbn [it_id] in Hk.
    assert (Hjl : (j < length ts)%nat) by (rewrite <- L1; apply nth_error_Some; congruence).
    destruct (nth_error ts j) as [tj|] eqn:Etj; [|apply nth_error_None in Etj; lia].
    destruct (Hn j tj Etj) as [ej [_ [Hj1 _]]]. rewrite Hj in Hj1. injection Hj1 as ->. cbn [it_id] in Hk.
    unfold T, seg_track_id in Hk. lia.
  - change (create_trex T) with (create_trex (ix_id (create_trex T))) at 1.
    apply (find_nth_unique ix_id (snd p) i _ H2). intros j y Hj Hk. cbn [ix_id create_trex] in Hk.
    assert (Hjl : (j < length ts)%nat) by (rewrite <- L2; apply nth_error_Some; congruence).
    destruct (nth_error ts j) as [tj|] eqn:Etj; [|apply nth_error_None in Etj; lia].
    destruct (Hn j tj Etj) as [ej [_ [_ Hj2]]]. rewrite Hj in Hj2. injection Hj2 as ->. cbn [ix_id create_trex] in Hk.
    unfold T, seg_track_id in Hk. lia.
Qed.

Definition out_trak (p : N * init) : itrak :=
  let t := first_trak (snd p) in mkITrak (fst p) (it_hdlr t) (it_timescale t) (it_entries t).
Definition out_trex (p : N * init) : itrex :=
  match first_trex (snd p) with
  | Some tx => mkITrex (fst p) (ix_sdi tx) (ix_ddur tx) (ix_dsize tx) (ix_dflags tx)
  | None => mkITrex (fst p) 0 0 0 0
  end.

Lemma comb_loop_spec ids : forall xs i rem tr tx,
  skipn i ids = rem -> (length xs <= length rem)%nat -> forallb (comb_in_ok false) xs = true ->
  comb_init_loop ids xs i (Some (mkInit tr (Some tx))) =
    Ok (Some (mkInit (tr ++ map out_trak (combine rem xs)) (Some (tx ++ map out_trex (combine rem xs))))).
Proof.
  induction xs as [|x xs IH]; intros i rem tr tx Hsk Hlen Hok; subst rem.
  - cbn [comb_init_loop]. destruct (skipn i ids); cbn [combine map]; rewrite !app_nil_r; reflexivity.
  - destruct (skipn i ids) as [|T tl] eqn:Es; [cbn [length] in Hlen; lia|].
    destruct (skipn_cons_nth ids i T tl Es) as [Hn Hs']. cbn [forallb] in Hok. apply andb_prop in Hok. destruct Hok as [Hx Hok].
    cbn [comb_init_loop]. rewrite Hn. unfold comb_in_ok in Hx.
    destruct (in_traks x) as [|t [|t2 r]] eqn:Et; try discriminate.
    destruct (in_mvex x) as [[|x0 r0]|] eqn:Em; try discriminate.
    unfold renumber. rewrite Et, Em. cbn [rbind]. unfold comb_add. cbn [in_mvex in_traks rbind].
    rewrite (IH (S i) tl _ _ Hs'); [|cbn [length] in Hlen; lia|exact Hok].
    cbn [combine map]. unfold out_trak at 2, out_trex at 2, first_trak, first_trex. cbn [fst snd]. rewrite Et, Em.
    rewrite <- !app_assoc. reflexivity.
Qed.

Lemma find_map_combine {B} (key : B -> N) (f : N * init -> B) : (forall p, key (f p) = fst p) ->
  forall ids xs T x, NoDup ids -> In (T, x) (combine ids xs) ->
  find (fun y => key y =? T) (map f (combine ids xs)) = Some (f (T, x)).
Proof.
  intros Hk. induction ids as [|a ids IH]; intros xs T x Hnd Hin; [contradiction|].
  destruct xs as [|x0 xs]; [contradiction|]. cbn [combine map find] in *. rewrite Hk. cbn [fst].
  inversion Hnd as [|? ? Hni Hnd']; subst. destruct Hin as [E|Hin].
  - injection E as -> ->. rewrite N.eqb_refl. reflexivity.
  - destruct (a =? T) eqn:E; [apply N.eqb_eq in E; subst a; exfalso; apply Hni; exact (in_combine_l _ _ _ _ Hin)|].
    apply IH; assumption.
Qed.

Lemma comb_init_same ids xs :
  NoDup ids -> length ids = length xs ->
  match xs with x0 :: r => comb_in_ok true x0 && forallb (comb_in_ok false) r | [] => false end = true ->
  exists o, comb_init ids xs = Ok o /\
    forall T x, In (T, x) (combine ids xs) -> same_track (first_trak x) (first_trex x) o T.
Proof.
  intros Hnd Hlen Hok. destruct xs as [|x0 xs]; [discriminate|]. destruct ids as [|T0 ids]; [discriminate|].
  apply andb_prop in Hok. destruct Hok as [H0 Hok]. unfold comb_init. cbn [comb_init_loop nth_error].
  unfold comb_in_ok in H0. destruct (in_traks x0) as [|t [|t2 r]] eqn:Et; try discriminate.
  destruct (in_mvex x0) as [[|tx0 [|? ?]]|] eqn:Em; try discriminate; [|apply andb_prop in H0; destruct H0; discriminate].
  unfold renumber. rewrite Et, Em. cbn [rbind].
  rewrite (comb_loop_spec (T0 :: ids) xs 1 ids _ _ eq_refl); [|cbn [length] in Hlen; lia|exact Hok]. cbn [rbind].
  eexists. split; [reflexivity|]. intros T x Hin.
  set (f1 := out_trak). set (f2 := out_trex).
  assert (E1 : [mkITrak T0 (it_hdlr t) (it_timescale t) (it_entries t)] ++ map f1 (combine ids xs) = map f1 (combine (T0 :: ids) (x0 :: xs))).
  { cbn [combine map app]. unfold f1 at 2, out_trak, first_trak. cbn [fst snd]. rewrite Et. reflexivity. }
  assert (E2 : [mkITrex T0 (ix_sdi tx0) (ix_ddur tx0) (ix_dsize tx0) (ix_dflags tx0)] ++ map f2 (combine ids xs) = map f2 (combine (T0 :: ids) (x0 :: xs))).
  { cbn [combine map app]. unfold f2 at 2, out_trex, first_trex. cbn [fst snd]. rewrite Em. reflexivity. }
  rewrite E1, E2. unfold same_track, find_trak, find_trex. cbn [in_traks in_mvex].
  exists (f1 (T, x)). split.
  - apply (find_map_combine it_id f1); [intros p; reflexivity|exact Hnd|exact Hin].
  - split; [reflexivity|]. split; [reflexivity|]. split; [reflexivity|].
    assert (Hx : exists tx, first_trex x = Some tx).
    { destruct Hin as [E|Hin]; [injection E as <- <-; unfold first_trex; rewrite Em; eexists; reflexivity|].
      apply in_combine_r in Hin. rewrite forallb_forall in Hok. specialize (Hok x Hin). unfold comb_in_ok in Hok.
      unfold first_trex. destruct (in_traks x) as [|? [|? ?]]; try discriminate.
      destruct (in_mvex x) as [[|? ?]|]; try discriminate. eexists; reflexivity. }
    destruct Hx as [tx Htx]. rewrite Htx.
    rewrite (find_map_combine ix_id f2 (fun p => ltac:(unfold f2, out_trex; destruct (first_trex (snd p)); reflexivity))
               (T0 :: ids) (x0 :: xs) T x Hnd Hin).
    unfold f2, out_trex. cbn [fst snd]. rewrite Htx. reflexivity.
Qed.
