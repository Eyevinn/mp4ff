(* C11MuxTotalProofs.v — the multiplexed writer does return without error, with trun optimisation (EncOptimize =
   OptimizeTrun) and without it (as the tool runs it): additions to a track the multi-track fragment has never fail,
   every addition grows the moof by at most 64 bytes, Fragment.Encode succeeds (no data offset is 0) and the written
   fragment satisfies the round trip's guard, under a bound on the INPUT of every segment. *)
From V.lib Require Import Base.
From Coq Require Import Permutation.
From V.c11 Require Import C11Model.
From V.c09 Require Import C09Model C09Spec C09BaseProofs.
From V.c05 Require Import C05Model C05FragModel C05OptProofs C05HistProofs C05GhostProofs C05OffProofs C05ReadProofs
  C05RoundProofs.
From V.c11 Require Import C11FetchModel C11Spec C11PipeProofs C11MuxProofs C11TotalProofs.

Lemma u32_succ_le x : u32 (x + 1) <= u32 x + 1.
Proof. unfold u32. lia. Qed.

Lemma trun_size_add r s : trun_size (tr_add r [s]) <= trun_size r + 16.
Proof.
  unfold trun_size, tr_add, has_doff, has_fsf, has_dur, has_size, has_sflags, has_cto.
  cbn [tr_with_samples tr_flags tr_samples]. rewrite lenN_app. change (lenN [s]) with 1.
  pose proof (u32_succ_le (lenN (tr_samples r))).
  pose proof (b2n_le (N.testbit (tr_flags r) B_DUR)). pose proof (b2n_le (N.testbit (tr_flags r) B_SIZE)).
  pose proof (b2n_le (N.testbit (tr_flags r) B_SFLAGS)). pose proof (b2n_le (N.testbit (tr_flags r) B_CTO)).
  set (K := 4 * b2n (N.testbit (tr_flags r) B_DUR) + 4 * b2n (N.testbit (tr_flags r) B_SIZE) +
            4 * b2n (N.testbit (tr_flags r) B_SFLAGS) + 4 * b2n (N.testbit (tr_flags r) B_CTO)).
  assert (HK : K <= 16) by (subst K; lia).
  assert (Hmul : u32 (lenN (tr_samples r) + 1) * K <= (u32 (lenN (tr_samples r)) + 1) * K) by (apply N.mul_le_mono_r; assumption).
  rewrite N.mul_add_distr_r, N.mul_1_l in Hmul. clearbody K. lia.
Qed.

Lemma sum_truns_removelast l d s : l <> [] ->
  sumN (map trun_size (removelast l ++ [tr_add (last l d) [s]])) <= sumN (map trun_size l) + 16.
Proof.
  intros Hne.
  assert (E : sumN (map trun_size l) = sumN (map trun_size (removelast l)) + trun_size (last l d)).
  { rewrite (app_removelast_last d Hne) at 1. rewrite map_app, sumN_app. cbn [map sumN]. lia. }
  rewrite E, map_app, sumN_app. cbn [map sumN].
  pose proof (trun_size_add (last l d) s). lia.
Qed.

Lemma tfdt_size_bounds dt dts : tfdt_size (set_base dts) <= tfdt_size dt + 4.
Proof. unfold tfdt_size. pose proof (set_base_version dts). lia. Qed.

Lemma traf_size_add t next s dts : traf_size (fst (add_to_traf t next s dts)) <= traf_size t + 64.
Proof.
  unfold add_to_traf. destruct (tf_truns t) as [|r0 l0] eqn:Et.
  - (* first trun created *)
    cbn [last]. pose proof (tfdt_size_bounds (tf_dt t) dts) as Hb.
    change (u32 (lenN (@nil sample)) =? 0) with true.
    destruct (negb (tr_won (create_trun next) =? u32 (u32 (next + 1) + 4294967295))); cbn [fst];
      unfold traf_size; cbn [tf_hd tf_dt tf_truns tf_extra]; rewrite Et;
      cbn [map sumN app removelast tr_samples create_trun].
    + change (u32 (lenN (@nil sample)) =? 0) with true. cbv iota.
      change (trun_size (create_trun next)) with 20.
      change (trun_size (tr_add (create_trun (u32 (next + 1))) [s])) with 36. lia.
    + change (u32 (lenN (@nil sample)) =? 0) with true. cbv iota.
      change (trun_size (tr_add (create_trun next) [s])) with 36. lia.
  - set (l := r0 :: l0) in *.
    assert (Hne : l <> []) by discriminate.
    assert (Hdt : forall dt', (dt' = tf_dt t \/ dt' = set_base dts) -> tfdt_size dt' <= tfdt_size (tf_dt t) + 4).
    { intros dt' [->| ->]; [lia|apply tfdt_size_bounds]. }
    set (dt' := match l0 with [] => if u32 (lenN (tr_samples r0)) =? 0 then set_base dts else tf_dt t | _ :: _ => tf_dt t end).
    assert (Hd' : dt' = tf_dt t \/ dt' = set_base dts).
    { subst dt'. destruct l0; auto. destruct (u32 (lenN (tr_samples r0)) =? 0); auto. }
    specialize (Hdt dt' Hd').
    destruct (negb (tr_won (last l (create_trun 0)) =? u32 (next + 4294967295))); cbn [fst];
      unfold traf_size; cbn [tf_hd tf_dt tf_truns tf_extra]; rewrite Et; fold l; fold dt'.
    + rewrite map_app, sumN_app. cbn [map sumN].
      change (trun_size (tr_add (create_trun next) [s])) with 36. lia.
    + pose proof (sum_truns_removelast l (create_trun 0) s Hne). lia.
Qed.

Lemma attt_size T next s d : forall ts ts' n', add_to_track_trafs ts T next s d = Some (ts', n') ->
  sumN (map traf_size ts') <= sumN (map traf_size ts) + 64.
Proof.
  induction ts as [|t ts IH]; intros ts' n' H; cbn [add_to_track_trafs] in H; [discriminate|].
  destruct (tf_track (tf_hd t) =? T).
  - pose proof (traf_size_add t next s d) as Hs. destruct (add_to_traf t next s d) as [t' n1]. injection H as <- <-.
    cbn [map sumN fst] in *. lia.
  - destruct (add_to_track_trafs ts T next s d) as [[r n1]|] eqn:E; [|discriminate]. injection H as <- <-.
    specialize (IH r n1 eq_refl). cbn [map sumN]. lia.
Qed.

Lemma step_full_growth fr T (x : fullsample) fr' : step fr (op_of T x) = Ok fr' ->
  moof_size fr' <= moof_size fr + 64 /\ fr_pre fr' = fr_pre fr /\
  md_data (fr_mdat fr') = md_data (fr_mdat fr) ++ fs_data x.
Proof.
  unfold op_of. cbn [step]. unfold add_sample_to_track.
  destruct (add_to_track_trafs (fr_trafs fr) T (fr_next fr) (fs_s x) (fs_dts x)) as [[ts n]|] eqn:E; [|discriminate].
  cbn [rbind]. intros H. injection H as <-. pose proof (attt_size _ _ _ _ _ _ _ E).
  unfold moof_size. cbn [fr_with fr_trafs fr_moofx fr_pre fr_mdat md_add_data md_set_lazy0 md_add_lazy md_data]. repeat split. lia.
Qed.

Lemma add_fulls_growth T : forall (l : list fullsample) fr fr', add_fulls fr T l = Ok fr' ->
  moof_size fr' <= moof_size fr + 64 * lenN l /\ fr_pre fr' = fr_pre fr /\
  md_data (fr_mdat fr') = md_data (fr_mdat fr) ++ flat_map fs_data l.
Proof.
  induction l as [|x l IH]; intros fr fr' H; cbn [add_fulls] in H.
  - injection H as <-. rewrite app_nil_r. split; [cbn; lia|split; reflexivity].
  - destruct (step fr (op_of T x)) as [fr1| | |] eqn:E; cbn [rbind] in H; try discriminate.
    destruct (step_full_growth fr T x fr1 E) as [H1 [Hp H2]]. destruct (IH fr1 fr' H) as [H3 [Hp' H4]].
    rewrite lenN_cons. split; [lia|]. split; [congruence|]. rewrite H4, H2. cbn [flat_map]. rewrite app_assoc. reflexivity.
Qed.

Definition g_count (g : list (N * list fullsample)) : N := sumN (map (fun p => lenN (snd p)) g).
Definition g_bytes (g : list (N * list fullsample)) : N := sumN (map (fun p => lenN (flat_map fs_data (snd p))) g).

Lemma mux_add_growth : forall g fr fr', mux_add fr g = Ok fr' ->
  moof_size fr' <= moof_size fr + 64 * g_count g /\ fr_pre fr' = fr_pre fr /\
  lenN (md_data (fr_mdat fr')) = lenN (md_data (fr_mdat fr)) + g_bytes g.
Proof.
  induction g as [|[T l] g IH]; intros fr fr' H; cbn [mux_add] in H.
  - injection H as <-. unfold g_count, g_bytes. cbn. repeat split; lia.
  - destruct (add_fulls fr T l) as [fr1| | |] eqn:E; cbn [rbind] in H; try discriminate.
    destruct (add_fulls_growth T l fr fr1 E) as [H1 [Hp H2]]. destruct (IH fr1 fr' H) as [H3 [Hp' H4]].
    unfold g_count, g_bytes in *. cbn [map sumN snd]. rewrite H4, H2, lenN_app. split; [lia|]. split; [congruence|lia].
Qed.

Lemma moof_size_create_multi ids : moof_size (create_multi ids) = 24 + 40 * lenN ids.
Proof.
  unfold moof_size, create_multi. cbn [fr_trafs fr_moofx]. rewrite map_map.
  induction ids as [|i ids IH]; [reflexivity|]. cbn [map sumN]. rewrite lenN_cons.
  change (traf_size (mkTraf (create_tfhd i) (mkTfdt 0 0) [] 0)) with 40. lia.
Qed.

Lemma ops_of_length g : N.of_nat (length (ops_of g)) = g_count g.
Proof.
  unfold ops_of, g_count. induction g as [|[T l] g IH]; [reflexivity|]. cbn [flat_map map sumN fst snd].
  rewrite app_length, map_length. unfold lenN in *. lia.
Qed.

Lemma count_ghost tracks : forall ops g, count (ghost tracks g ops) <= count g + N.of_nat (length ops).
Proof.
  induction ops as [|o ops IH]; intros g; cbn [ghost length]; [lia|].
  destruct (op_track o) as [T|]; [|specialize (IH g); lia].
  destruct (existsb (N.eqb T) tracks); [|specialize (IH g); lia].
  specialize (IH (fruns_add g T (op_full o))). rewrite count_add in IH. lia.
Qed.

Lemma trun_size_canon k l : lenN l < 4294967296 -> trun_size (canon k l) = 20 + 16 * lenN l.
Proof.
  intros H. unfold trun_size, canon, has_doff, has_fsf, has_dur, has_size, has_sflags, has_cto. cbn [tr_flags tr_samples].
  change (N.testbit 3841 B_DOFF) with true. change (N.testbit 3841 B_FSF) with false. change (N.testbit 3841 B_DUR) with true.
  change (N.testbit 3841 B_SIZE) with true. change (N.testbit 3841 B_SFLAGS) with true. change (N.testbit 3841 B_CTO) with true.
  cbn [b2n]. rewrite u32_small by exact H. lia.
Qed.

Lemma tfhd_size_ge h : 16 <= tfhd_size h.
Proof. unfold tfhd_size. lia. Qed.

(* OptimizeTfhdTrun of the first traf's first trun cannot fail on a fragment built by the writers (a trun that
   exists is not empty) and adds at most 28 bytes to the moof *)
Lemma optimize_first_total ids gg fr : ginv ids gg fr -> count gg < 4294967296 ->
  exists fr1, optimize_first fr = Ok fr1 /\ moof_size fr1 <= moof_size fr + 28.
Proof.
  intros Hgi Hcnt. unfold optimize_first.
  destruct (fr_trafs fr) as [|t ts] eqn:Et; [exists fr; split; [reflexivity|lia]|].
  destruct (tf_truns t) as [|r rs] eqn:Er; [exists fr; split; [reflexivity|lia]|].
  destruct Hgi as ((_ & _ & Hf) & _ & Hnein & _). rewrite Et in Hf. pose proof (Forall_inv Hf) as Ht. cbv beta in Ht.
  pose proof (mk_truns_samples_bounds ids (tf_track (tf_hd t)) gg Hnein) as Hb. rewrite <- Ht, Er in Hb.
  pose proof (Forall_inv Hb) as [Hrne Hrlen].
  assert (Hcan : exists k l, r = canon k l).
  { rewrite mk_truns_specs in Ht. rewrite Er in Ht. destruct (specs_of (tf_track (tf_hd t)) gg) as [|p ps]; [discriminate|].
    cbn [map] in Ht. injection Ht as -> _. eexists; eexists; reflexivity. }
  destruct Hcan as [k [l ->]]. cbn [canon tr_samples] in Hrne, Hrlen.
  destruct (optimize_total (tf_hd t) (canon k l) Hrne) as [[h' r'] Ho].
  unfold optimize, FIXED_FSF. rewrite Ho. cbn [rbind]. eexists. split; [reflexivity|].
  pose proof (optimize_frame _ _ _ _ _ Ho) as (_ & _ & Hsame & _ & _). cbn [fst snd canon tr_samples] in Hsame.
  unfold moof_size. cbn [fr_with fr_trafs fr_moofx]. rewrite Et. cbn [map sumN]. unfold traf_size.
  cbn [tf_hd tf_dt tf_truns tf_extra]. rewrite Er. cbn [map sumN].
  pose proof (tfhd_size_le h'). pose proof (tfhd_size_ge (tf_hd t)).
  pose proof (trun_size_le r') as Hr'. rewrite Hsame in Hr'.
  rewrite (trun_size_canon k l) by lia. lia.
Qed.

(* Fragment.Encode on a multi-track fragment built by the writers, trun optimisation on or off: SetTrunDataOffsets
   sees the same (write order, data size) pairs with and without the optimisation; no data offset is 0 *)
Lemma write_mux_encode (opt : bool) ids g pos0 fr :
  NoDup ids -> ids <> [] -> map fst g = ids ->
  Forall (fun p => Forall sized_f (snd p)) g ->
  64 * g_count g + g_bytes g + 40 * lenN ids + (if opt then 300 else 200) < 2147483648 -> pos0 < 4611686018427387904 ->
  mux_add (create_multi ids) g = Ok fr ->
  exists fe, encode_frag opt fr = Ok fe /\ seg_guard pos0 fe = true.
Proof.
  intros Hnd Hne Hids Hsz Hsmall Hpos Ha.
  destruct (mux_add_growth g _ _ Ha) as [Hm [Hpre Hd]]. rewrite moof_size_create_multi in Hm.
  cbn [create_multi fr_mdat md_data fr_pre] in Hd, Hpre. change (lenN (@nil N)) with 0 in Hd.
  destruct (mux_add_run _ _ _ Ha) as [cs Hrun].
  assert (Hlen : N.of_nat (length (ops_of g)) < 4294967296) by (rewrite ops_of_length; destruct opt; lia).
  set (gg := ghost ids [] (ops_of g)).
  assert (Hgi : ginv ids gg fr).
  { apply (ghost_ginv ids (ops_of g) cs (create_multi ids) fr Hnd Hlen (ops_full_to g)); [apply create_multi_ginv; exact Hnd|exact Hrun]. }
  assert (Hsg : sized gg) by (apply ghost_sized; [constructor|apply ops_sized; exact Hsz]).
  assert (Hopt : exists fr1, (if opt then optimize_first fr else Ok fr) = Ok fr1 /\
                             moof_size fr1 <= moof_size fr + (if opt then 28 else 0)).
  { destruct opt; [|exists fr; split; [reflexivity|lia]]. apply (optimize_first_total ids gg fr Hgi).
    pose proof (count_ghost ids (ops_of g) []) as Hcnt. cbn [count] in Hcnt. fold gg in Hcnt. lia. }
  destruct Hopt as [fr1 [Hopt Hm1]].
  destruct (opt_first_props ids gg fr opt fr1 Hgi Hopt) as ((Em & Ep & Ex & Eq & En) & HT).
  assert (Hperm : Permutation (map pr (all_truns (fr_trafs fr1))) (prs (runs_of gg))).
  { rewrite (pr_all_truns _ _ HT). apply (all_truns_perm ids); assumption. }
  assert (Hdata : lenN (all_data gg) = g_bytes g).
  { destruct Hgi as (_ & _ & _ & _ & Hdt & _). rewrite <- Hdt. lia. }
  assert (Hhdr : md_header_size (md_size_touch (fr_mdat fr1)) <= 16).
  { unfold md_header_size. destruct (md_large (md_size_touch (fr_mdat fr1))); lia. }
  pose proof (set_offsets_runs fr1 (runs_of gg)) as Hset. cbv zeta in Hset. specialize (Hset Hperm).
  rewrite (tsum_prs_sized gg Hsg), Hdata in Hset. specialize (Hset ltac:(destruct opt; lia)).
  set (f := fun r => Z.of_N (moof_size fr1 + md_header_size (md_size_touch (fr_mdat fr1)) + run_pos (runs_of gg) (tr_won r))) in *.
  assert (Hnz : forall l, existsb doff_unset (map (fun r => tr_with_doff r (f r)) l) = false).
  { induction l as [|r l IH]; [reflexivity|]. cbn [map existsb]. rewrite IH, orb_false_r.
    unfold doff_unset. cbn [tr_with_doff tr_doff]. subst f. cbv beta.
    pose proof (moof_size_pos fr1). destruct (Z.of_N _ =? 0)%Z eqn:E; [lia|apply andb_false_r]. }
  assert (Hmap : map C05HistProofs.track_of (fr_trafs fr1) = ids).
  { rewrite (topt_tracks _ _ HT). destruct Hgi as (_ & Hmp & _). exact Hmp. }
  unfold encode_frag. rewrite Hopt. cbn [rbind]. rewrite Hset. cbn [fr_with fr_trafs fr_mdat fr_next]. unfold with_offsets.
  destruct (fr_trafs fr1) as [|t ts] eqn:Et; [cbn [map] in Hmap; congruence|].
  cbn [map tf_truns]. rewrite Hnz.
  assert (Hall : existsb doff_unset (all_truns (map (fun t0 => mkTraf (tf_hd t0) (tf_dt t0)
                   (map (fun r => tr_with_doff r (f r)) (tf_truns t0)) (tf_extra t0)) ts)) = false).
  { unfold all_truns. clear - Hnz. induction ts as [|t1 ts1 IH]; [reflexivity|]. cbn [map flat_map tf_truns].
    rewrite existsb_app, Hnz. cbn [orb]. apply IH. }
  rewrite Hall. eexists. split; [reflexivity|].
  unfold seg_guard, fr_with. cbn [fr_trafs fr_mdat fr_next fr_pre fr_moofx fr_post].
  pose proof (moof_size_with_offsets fr1 f (md_size_touch (md_size_touch (fr_mdat fr1))) (fr_next fr1)) as Hw.
  unfold with_offsets, fr_with in Hw. rewrite Et in Hw. cbn [map] in Hw. rewrite Hw, md_touch_idem, Ep, Hpre, Em.
  cbn [md_size_touch md_data]. rewrite Em in Hhdr. clear - Hm Hm1 Hd Hhdr Hsmall Hpos.
  apply andb_true_intro. split; apply N.ltb_lt; destruct opt; lia.
Qed.

Definition iv_at (t : strack) (k : nat) : N * N :=
  match nth_error (st_ivs t) k with Some iv => iv | None => (1, 0) end.

(* a bound on the INPUT of segment k: 64 bytes of moof per sample + 40 per track + the samples' bytes + headers *)
Definition mux_seg_small (trs : list strack) (k : nat) : bool :=
  64 * sumN (map (fun t => snd (iv_at t k) + 1 - fst (iv_at t k)) trs)
  + sumN (map (fun t => S_total_size (st_tb t) (fst (iv_at t k)) (snd (iv_at t k))) trs)
  + 40 * lenN trs + 200 <? 2147483648.

Definition mtrack_ok (f : pfile) (nsegs : nat) (t : strack) : Prop :=
  track_ok f t /\ length (st_ivs t) = nsegs /\ Forall (fun iv => fst iv <= snd iv + 1) (st_ivs t).

Lemma mux_gather_total f nsegs k : (k < nsegs)%nat -> forall trs, Forall (mtrack_ok f nsegs) trs ->
  exists g, mux_gather f trs k = Ok g /\ map fst g = map st_id trs /\
            Forall (fun p => Forall sized_f (snd p)) g /\
            g_count g = sumN (map (fun t => snd (iv_at t k) + 1 - fst (iv_at t k)) trs) /\
            g_bytes g = sumN (map (fun t => S_total_size (st_tb t) (fst (iv_at t k)) (snd (iv_at t k))) trs).
Proof.
  intros Hk. induction trs as [|[[tb T] ivs] trs IH]; intros Hok.
  - exists []. repeat split; constructor.
  - inversion Hok as [|? ? ((H & Hd & Hin) & Hlen & Hord) Hok']; subst.
    unfold st_tb, st_id, st_ivs in *. cbn [fst snd] in *.
    destruct (IH Hok') as [g [Hg [Hids [Hsz [Hc Hb]]]]].
    destruct (nth_error ivs k) as [iv|] eqn:En; [|apply nth_error_None in En; lia].
    pose proof (nth_error_In _ _ En) as Hini. rewrite Forall_forall in Hord, Hin.
    destruct (fetch_or_skip_ok f tb iv H Hd (Hord _ Hini) (Hin _ Hini)) as (l & Hl & Hm).
    destruct (interval_facts f tb iv l H Hd (Hord _ Hini) (Hin _ Hini) Hm) as (Hsl & _ & Hlen' & Hdl).
    cbn [mux_gather]. rewrite En, Hl. cbn [rbind]. rewrite Hg. cbn [rbind].
    eexists. split; [reflexivity|]. cbn [map fst snd]. split; [rewrite Hids; reflexivity|].
    split; [constructor; assumption|].
    unfold g_count, g_bytes, iv_at, st_ivs in *. cbn [map sumN snd]. rewrite En, Hc, Hb, Hlen', Hdl. split; reflexivity.
Qed.

(* additions to a track the fragment has never fail *)
Definition tracks_of (fr : frag) : list N := map (fun t => tf_track (tf_hd t)) (fr_trafs fr).

Lemma attt_some T next s d : forall ts, In T (map (fun t => tf_track (tf_hd t)) ts) ->
  exists ts' n', add_to_track_trafs ts T next s d = Some (ts', n') /\
                 map (fun t => tf_track (tf_hd t)) ts' = map (fun t => tf_track (tf_hd t)) ts.
Proof.
  induction ts as [|t ts IH]; intros Hin; [contradiction|]. cbn [add_to_track_trafs map In] in *.
  destruct (tf_track (tf_hd t) =? T) eqn:E.
  - unfold add_to_traf.
    destruct (match tf_truns t with [] => ([create_trun next], u32 (next + 1)) | r :: l => (r :: l, next) end) as [tr1 n1].
    destruct (negb (tr_won (last tr1 (create_trun 0)) =? u32 (n1 + 4294967295))); eexists; eexists; split; reflexivity.
  - destruct Hin as [Hh|Hin]; [apply N.eqb_neq in E; congruence|].
    destruct (IH Hin) as [ts' [n' [H1 H2]]]. rewrite H1. eexists; eexists. split; [reflexivity|]. cbn [map]. rewrite H2. reflexivity.
Qed.

Lemma add_fulls_ok_multi T : forall (l : list fullsample) fr, In T (tracks_of fr) ->
  exists fr', add_fulls fr T l = Ok fr' /\ tracks_of fr' = tracks_of fr.
Proof.
  induction l as [|x l IH]; intros fr Hin; cbn [add_fulls]; [exists fr; split; reflexivity|].
  unfold op_of. cbn [step]. unfold add_sample_to_track.
  destruct (attt_some T (fr_next fr) (fs_s x) (fs_dts x) (fr_trafs fr) Hin) as [ts' [n' [H1 H2]]]. rewrite H1. cbn [rbind].
  set (fr1 := fr_with _ _ _ _).
  assert (Ht1 : tracks_of fr1 = tracks_of fr) by (subst fr1; unfold tracks_of; cbn [fr_with fr_trafs]; exact H2).
  destruct (IH fr1 ltac:(rewrite Ht1; exact Hin)) as [fr' [Ha Ht]]. exists fr'. split; [exact Ha|congruence].
Qed.

Lemma mux_add_ok : forall g fr, (forall p, In p g -> In (fst p) (tracks_of fr)) -> exists fr', mux_add fr g = Ok fr'.
Proof.
  induction g as [|[T l] g IH]; intros fr Hin; cbn [mux_add]; [exists fr; reflexivity|].
  destruct (add_fulls_ok_multi T l fr (Hin (T, l) (or_introl eq_refl))) as [fr1 [Ha Ht]]. rewrite Ha. cbn [rbind].
  apply IH. intros p Hp. rewrite Ht. apply Hin. right. exact Hp.
Qed.

Lemma tracks_of_create_multi ids : tracks_of (create_multi ids) = ids.
Proof. unfold tracks_of, create_multi. cbn [fr_trafs]. rewrite map_map. cbn [tf_hd create_tfhd tf_track]. apply map_id. Qed.

Lemma mux_loop_total (opt : bool) f nsegs pos0 trs : NoDup (map st_id trs) -> trs <> [] -> pos0 < 4611686018427387904 ->
  Forall (mtrack_ok f nsegs) trs ->
  forall ks, (forall k, In k ks -> (k < nsegs)%nat /\
      64 * sumN (map (fun t => snd (iv_at t k) + 1 - fst (iv_at t k)) trs)
      + sumN (map (fun t => S_total_size (st_tb t) (fst (iv_at t k)) (snd (iv_at t k))) trs)
      + 40 * lenN trs + (if opt then 300 else 200) < 2147483648) ->
  exists fes, mux_loop opt f (map st_id trs) trs ks = Ok fes /\ Forall (fun fe => seg_guard pos0 fe = true) fes.
Proof.
  intros Hnd Hne Hpos Hok. induction ks as [|k ks IH]; intros Hks.
  - exists []. split; [reflexivity|constructor].
  - destruct (IH (fun k' Hk' => Hks k' (or_intror Hk'))) as [fes [Hl Hg]].
    destruct (Hks k (or_introl eq_refl)) as [Hk Hsm].
    destruct (mux_gather_total f nsegs k Hk trs Hok) as [g [Hgg [Hids [Hsz [Hc Hb]]]]].
    rewrite <- Hc, <- Hb in Hsm.
    cbn [mux_loop]. rewrite Hgg. cbn [rbind]. unfold write_mux_segment.
    destruct (mux_add_ok g (create_multi (map st_id trs))) as [fr Hadd].
    { intros p Hp. rewrite tracks_of_create_multi, <- Hids. apply in_map. exact Hp. }
    rewrite Hadd. cbn [rbind].
    destruct (write_mux_encode opt (map st_id trs) g pos0 fr Hnd) as [fe [He Hgf]]; try assumption.
    + destruct trs; [congruence|discriminate].
    + unfold lenN in *. rewrite map_length. exact Hsm.
    + rewrite He, Hl. cbn [rbind]. exists (fe :: fes). split; [reflexivity|constructor; assumption].
Qed.

(* the multiplexed writer, total form; with opt = false (as the tool runs it) the bound is mux_seg_small *)
Lemma mux_total (opt : bool) f pos0 trs nsegs :
  NoDup (map st_id trs) -> trs <> [] -> total_samples trs < 4294967296 -> (1 <= nsegs)%nat ->
  pos0 < 4611686018427387904 ->
  Forall (fun t => C09Spec.consistent (st_tb t) = true /\ data_ok f (st_tb t) = true /\
                   length (st_ivs t) = nsegs /\
                   concat (map C11Model.range (st_ivs t)) = seqN1 (nsamples (st_tb t)) /\
                   Forall (fun iv => fst iv <= snd iv + 1) (st_ivs t)) trs ->
  forallb (fun k => 64 * sumN (map (fun t => snd (iv_at t k) + 1 - fst (iv_at t k)) trs)
                    + sumN (map (fun t => S_total_size (st_tb t) (fst (iv_at t k)) (snd (iv_at t k))) trs)
                    + 40 * lenN trs + (if opt then 300 else 200) <? 2147483648) (seq 0 nsegs) = true ->
  exists fes, mux_segments opt f trs nsegs = Ok fes /\
    Forall (fun t => forall tx : C05Model.trex, tx_track tx = st_id t ->
              exists outs, read_all (read_back tx pos0 []) fes = Ok outs /\
                           map Some (concat outs) = expansion f (st_tb t)) trs.
Proof.
  intros Hnd Hne Htot Hn Hpos Hall Hsm. rewrite Forall_forall in Hall. rewrite forallb_forall in Hsm.
  assert (Hok : Forall (mtrack_ok f nsegs) trs).
  { apply Forall_forall. intros t Ht. destruct (Hall t Ht) as [H [Hd [Hlen [Htile Hord]]]].
    split; [split; [exact H|split; [exact Hd|exact (tile_all_in _ _ Htile)]]|split; assumption]. }
  destruct (mux_loop_total opt f nsegs pos0 trs Hnd Hne Hpos Hok (seq 0 nsegs)) as [fes [Hl Hg]].
  { intros k Hk. split; [apply in_seq in Hk; lia|]. apply N.ltb_lt. exact (Hsm k Hk). }
  assert (Hs : mux_segments opt f trs nsegs = Ok fes).
  { unfold mux_segments. replace (Nat.max 1 nsegs) with nsegs by lia. exact Hl. }
  exists fes. split; [exact Hs|].
  apply (mux_end_to_end_all opt f pos0 trs nsegs fes Hnd Htot Hn); [|exact Hs|exact Hg].
  apply Forall_forall. intros t Ht. destruct (Hall t Ht) as [H [Hd [Hlen [Htile _]]]]. repeat split; assumption.
Qed.
