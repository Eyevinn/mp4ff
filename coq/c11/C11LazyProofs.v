(* C11LazyProofs.v — makeSingleTrackSegmentsLazyWrite end to end: metadata-only samples (GetSamplesForInterval)
   added with AddSampleToTrack, Fragment.Encode (mdat header only), copyMediaData writing the bytes after it;
   decode + GetFullSamples give back the expansion (C05_roundtrip_single_modes, metadata-only mode). *)
From V.lib Require Import Base.
From V.c11 Require Import C11Model C11SegProofs.
From V.c09 Require Import C09Model C09Spec C09SttsProofs.
From V.c05 Require Import C05Model C05FragModel C05HistProofs C05ReadProofs C05RoundProofs C05Theorems.
From V.c11 Require Import C11FetchModel C11Spec C11FetchProofs C11PipeProofs C11CopyProofs.

(* one traf of track T with its single trun (write order 0); the base time is `base` unless nothing was added *)
Definition lazy_inv (T base : N) (fr : frag) : Prop :=
  exists h dt r ex, fr_trafs fr = [mkTraf h dt [r] ex] /\ tf_track h = T /\ tr_won r = 0 /\ fr_next fr = 1 /\
                    (tr_samples r = [] \/ dt = set_base base).
Definition lazy_done (T base : N) (fr : frag) : Prop :=
  exists h r ex, fr_trafs fr = [mkTraf h (set_base base) [r] ex] /\ tf_track h = T /\ tr_won r = 0 /\ fr_next fr = 1.

Lemma lazy_inv_create T base : lazy_inv T base (create_fragment T).
Proof. do 4 eexists. repeat split. left. reflexivity. Qed.

Lemma lazy_done_inv T base fr : lazy_done T base fr -> lazy_inv T base fr.
Proof. intros (h & r & ex & H1 & H2 & H3 & H4). exists h, (set_base base), r, ex. repeat split; auto. Qed.

Lemma step_meta_done T base s fr fr' : lazy_inv T base fr -> step fr (OMetaTo T s base) = Ok fr' -> lazy_done T base fr'.
Proof.
  intros (h & dt & r & ex & Ht & Hh & Hw & Hn & Hd) Hs.
  cbn [step] in Hs. unfold add_sample_to_track in Hs. rewrite Ht, Hn in Hs.
  cbn [add_to_track_trafs tf_hd] in Hs. rewrite Hh, N.eqb_refl in Hs.
  unfold add_to_traf in Hs. cbn [tf_truns tf_dt tf_hd tf_extra last] in Hs. rewrite Hw in Hs.
  change (u32 (1 + 4294967295)) with 0 in Hs. cbn [N.eqb negb removelast app] in Hs.
  injection Hs as <-. cbn [fr_with fr_trafs fr_next].
  destruct (u32 (lenN (tr_samples r)) =? 0) eqn:E.
  - do 3 eexists. repeat split; try reflexivity; assumption.
  - destruct Hd as [Hd|Hd]; [rewrite Hd in E; discriminate|]. rewrite Hd.
    do 3 eexists. repeat split; try reflexivity; assumption.
Qed.

Lemma add_metas_done T base : forall l fr fr', lazy_inv T base fr -> l <> [] ->
  add_metas fr T base l = Ok fr' -> lazy_done T base fr'.
Proof.
  induction l as [|s l IH]; intros fr fr' Hi Hne Ha; [congruence|]. cbn [add_metas] in Ha.
  destruct (step fr (OMetaTo T s base)) as [fr1| | |] eqn:Es; cbn [rbind] in Ha; try discriminate.
  pose proof (step_meta_done T base s fr fr1 Hi Es) as Hd1.
  destruct l as [|s2 l']; [cbn [add_metas] in Ha; injection Ha as <-; exact Hd1|].
  apply (IH fr1 fr' (lazy_done_inv _ _ _ Hd1)); [discriminate|exact Ha].
Qed.

Lemma add_metas_run T base : forall l fr fr', add_metas fr T base l = Ok fr' ->
  run_ops fr (map (fun s => OMetaTo T s base) l) = (repeat COk (length l), Some fr').
Proof.
  induction l as [|s l IH]; intros fr fr' H; cbn [add_metas map run_ops repeat length] in *.
  - injection H as <-. reflexivity.
  - destruct (step fr (OMetaTo T s base)) as [fr1| | |] eqn:E; cbn [rbind] in H; try discriminate.
    rewrite (IH _ _ H). reflexivity.
Qed.

Lemma added1_metas T base l : added1 T (map (fun s => OMetaTo T s base) l) = l.
Proof.
  unfold added1. induction l as [|s l IH]; [reflexivity|].
  cbn [map filter]. unfold hits at 1. cbn [op_track]. rewrite N.eqb_refl. cbn [flat_map op_samples app].
  rewrite IH. reflexivity.
Qed.

Definition lazy_guard (pos0 : N) (p : frag * list N) : bool :=
  (moof_size (fst p) + md_header_size (fr_mdat (fst p)) + lenN (snd p) <? 2147483648)
  && (pos0 + fr_pre (fst p) <? 4611686018427387904).

Lemma lazy_segment_read_back opt T pos0 (tx : C05Model.trex) (FL : list fullsample) base fr fe :
  FL <> [] -> Forall sized_f FL -> base < 18446744073709551616 ->
  C05ReadProofs.retime base FL = FL ->
  add_metas (create_fragment T) T base (map fs_s FL) = Ok fr ->
  encode_frag opt fr = Ok fe ->
  lazy_guard pos0 (fe, flat_map fs_data FL) = true ->
  read_back tx pos0 (flat_map fs_data FL) fe = Ok (if tx_track tx =? T then FL else []).
Proof.
  intros Hne Hsz Hb Hrt Ha He Hg. unfold lazy_guard in Hg. cbn [fst snd] in Hg.
  apply andb_prop in Hg. destruct Hg as [Hg1 Hg2].
  assert (Hne' : map fs_s FL <> []) by (destruct FL; [congruence|discriminate]).
  pose proof (add_metas_done T base _ _ _ (lazy_inv_create T base) Hne' Ha) as (h & r & ex & Htr & _).
  apply add_metas_run in Ha.
  destruct (C05_roundtrip_single_modes T (map (fun s => OMetaTo T s base) (map fs_s FL)) (repeat COk (length (map fs_s FL))) fr opt fe pos0 tx 0 0 0 []
              FL (flat_map fs_data FL)) as (t & ex' & Htr' & Hread).
  - clear - Hb. induction (map fs_s FL) as [|s l IH]; constructor; [exact Hb|exact IH].
  - exact Ha.
  - right. left. split; [|reflexivity]. clear. induction (map fs_s FL) as [|s l IH]; [reflexivity|exact IH].
  - rewrite added1_metas. reflexivity.
  - exact Hsz.
  - exact Hne.
  - exact He.
  - lia.
  - lia.
  - unfold read_back. rewrite Hread. rewrite Htr in Htr'.
    apply (f_equal (fun l => match l with [x] => td_base (tf_dt x) | _ => 0 end)) in Htr'.
    cbn [tf_dt set_base td_base] in Htr'. subst t.
    rewrite Hrt. reflexivity.
Qed.

Lemma map_Some_inj {A} : forall (l1 l2 : list A), map Some l1 = map Some l2 -> l1 = l2.
Proof.
  induction l1 as [|x l1 IH]; intros [|y l2] H; try discriminate; [reflexivity|].
  cbn [map] in H. injection H as -> H. f_equal. apply IH, H.
Qed.

Lemma fulls_metas f tb : forall ns l, map Some l = map (S_full f tb) ns ->
  map Some (map fs_s l) = map (fun n => option_map meta_sample (S_meta tb n)) ns.
Proof.
  induction ns as [|n ns IH]; intros l Hl.
  - destruct l; [reflexivity|discriminate].
  - destruct l as [|x l']; [discriminate|]. cbn [map] in Hl. injection Hl as Hx Hl'.
    cbn [map]. rewrite (IH _ Hl'). f_equal. symmetry. apply (S_full_meta f tb n x). symmetry. exact Hx.
Qed.

(* what the -lazy writer does with an interval, in terms of the full samples l the expansion holds for it:
   GetSamplesForInterval returns their metadata, the decode time of the first is the fragment's base time,
   copyMediaData writes their bytes *)
Lemma write_lazy_segment_spec opt f tb T iv l :
  C09Spec.consistent tb = true -> data_ok f tb = true -> one_offset_box tb = true ->
  fst iv <= snd iv + 1 -> all_in tb (C11Model.range iv) -> reads_as f tb iv l ->
  write_lazy_segment opt f tb T iv =
  match l with
  | [] => Ok None
  | x :: _ => do fr <- add_metas (create_fragment T) T (fs_dts x) (map fs_s l);
              do fe <- encode_frag opt fr; Ok (Some (fe, flat_map fs_data l))
  end.
Proof.
  intros H Hd Hone Ho Hin Hl. destruct iv as [a b]. unfold reads_as in Hl. cbn [fst snd] in Ho.
  unfold write_lazy_segment, fetch_meta_interval. cbn [fst snd]. rewrite range_seqN in *.
  destruct (b + 1 <? a) eqn:E; [lia|].
  destruct (fetch_meta_loop_ok tb H _ a Hin) as [metas [Hml Hmm]].
  rewrite <- (fulls_metas f tb _ l Hl) in Hmm. apply map_Some_inj in Hmm. subst metas. rewrite Hml. cbn [rbind].
  pose proof (map_Some_length _ _ Hl) as Hlen. rewrite map_length, seqN_length in Hlen.
  destruct l as [|x l']; [reflexivity|]. cbn [map]. cbv iota. cbn [length] in Hlen.
  assert (Ha : 1 <= a <= nsamples tb) by (apply Hin, in_seqN; lia).
  assert (Hb : 1 <= b <= nsamples tb) by (apply Hin, in_seqN; lia).
  assert (Hx : S_full f tb a = Some x).
  { destruct (N.to_nat (b + 1 - a)); [discriminate|]. cbn [seqN map] in Hl. injection Hl as Hx _. auto. }
  destruct (decode_time_correct tb H a Ha) as [t [d [Ht [_ Hq]]]]. rewrite Hq. cbn [rbind fst].
  destruct (S_full_fields f tb a x Hx) as [Hxt _]. rewrite Ht in Hxt. injection Hxt as ->.
  rewrite (copy_media_data_ok f tb H Hd Hone a b) by lia. unfold S_data.
  rewrite <- (S_data_fulls f tb _ a _ Hl). reflexivity.
Qed.

Lemma write_lazy_read_back opt f tb T pos0 (tx : C05Model.trex) iv o :
  C09Spec.consistent tb = true -> data_ok f tb = true -> one_offset_box tb = true -> tx_track tx = T ->
  all_in tb (C11Model.range iv) -> write_lazy_segment opt f tb T iv = Ok o ->
  exists l, reads_as f tb iv l /\
    match o with
    | None => l = []
    | Some p => l <> [] /\ (lazy_guard pos0 p = true -> read_back tx pos0 (snd p) (fst p) = Ok l)
    end.
Proof.
  intros H Hd Hone Htx Hin Hw.
  assert (Ho : fst iv <= snd iv + 1).
  { unfold write_lazy_segment, fetch_meta_interval in Hw. destruct (snd iv + 1 <? fst iv) eqn:E; [discriminate|lia]. }
  destruct (fetch_or_skip_ok f tb iv H Hd Ho Hin) as (l & _ & Hl). exists l. split; [exact Hl|].
  rewrite (write_lazy_segment_spec opt f tb T iv l H Hd Hone Ho Hin Hl) in Hw.
  destruct (interval_facts f tb iv l H Hd Ho Hin Hl) as (Hsz & Hc & _).
  destruct l as [|x l']; [injection Hw as <-; reflexivity|].
  apply rbind_ok in Hw. destruct Hw as (fr & Hadd & Hw). apply rbind_ok in Hw. destruct Hw as (fe & Henc & Hw).
  injection Hw as <-. split; [discriminate|]. intros Hg. destruct Hc as [Hb Hrt].
  pose proof (lazy_segment_read_back opt T pos0 tx (x :: l') (fs_dts x) fr fe ltac:(discriminate) Hsz Hb Hrt Hadd Henc Hg) as Hr.
  rewrite Htx, N.eqb_refl in Hr. exact Hr.
Qed.

Lemma seg_track_lazy_pieces opt f tb T pos0 (tx : C05Model.trex) :
  C09Spec.consistent tb = true -> data_ok f tb = true -> one_offset_box tb = true -> tx_track tx = T ->
  forall ivs outs, Forall (fun iv => all_in tb (C11Model.range iv)) ivs ->
  seg_track_lazy opt f tb T ivs = Ok outs ->
  Forall (fun p => lazy_guard pos0 p = true) outs ->
  exists ls, Forall2 (reads_as f tb) ivs ls /\
             read_all (fun p => read_back tx pos0 (snd p) (fst p)) outs = Ok (nonempty_pieces ls).
Proof.
  intros H Hd Hone Htx. induction ivs as [|iv ivs IH]; intros outs Hin Hs Hg; cbn [seg_track_lazy] in Hs.
  - injection Hs as <-. exists []. split; [constructor|reflexivity].
  - pose proof (Forall_inv Hin) as Hin1. apply Forall_inv_tail in Hin.
    apply rbind_ok in Hs. destruct Hs as (o & Ho & Hs). apply rbind_ok in Hs. destruct Hs as (r & Hr & Hs).
    injection Hs as <-.
    destruct (write_lazy_read_back opt f tb T pos0 tx iv o H Hd Hone Htx Hin1 Ho) as (l & Hl & Hrb).
    destruct o as [p|].
    + destruct Hrb as [Hne Hrb]. pose proof (Forall_inv Hg) as Hg1. apply Forall_inv_tail in Hg.
      destruct (IH r Hin Hr Hg) as (ls & Hls & Hrd). exists (l :: ls). split; [constructor; assumption|].
      destruct l; [congruence|]. cbn [nonempty_pieces filter]. apply read_all_app; [exact (Hrb Hg1)|exact Hrd].
    + subst l. destruct (IH r Hin Hr Hg) as (ls & Hls & Hrd). exists ([] :: ls). split; [constructor; assumption|exact Hrd].
Qed.

