(* C11SyncLazyProofs.v - the decoded-level sync clause for the -lazy writer (makeSingleTrackSegmentsLazyWrite):
   C11LazyProofs.seg_track_lazy_pieces + C11SyncDecProofs. *)
From V.lib Require Import Base.
From V.c11 Require Import C11Model C11SegProofs.
From V.c09 Require Import C09Model C09Spec.
From V.c05 Require Import C05Model C05FragModel C05HistProofs C05RoundProofs.
From V.c11 Require Import C11FetchModel C11Spec C11PipeProofs C11LazyProofs C11TotalProofs
  C11SyncDecProofs.

Lemma ref_segments_start_sync_lazy (f : pfile) (trs : list itrack) (t : itrack) d syncTs sps ivs stss :
  Forall (fun t => C09Spec.consistent (snd t) = true) trs -> In t trs -> data_ok f (snd t) = true ->
  one_offset_box (snd t) = true ->
  first_video (map itrack_of trs) = Some (itrack_of t) ->
  C09Model.t_stss (snd t) = Some stss -> In 1 stss ->
  get_segment_starts (map itrack_of trs) d = Ok (syncTs, sps) -> sps <> [] ->
  get_segment_intervals syncTs sps (itrack_of t) = Ok ivs ->
  nonzero_dur_syncs (itrack_of t) sps = true ->
  forall opt T pos0 (tx : C05Model.trex),
  tx_track tx = T -> pos0 < 4611686018427387904 -> forallb (seg_small (snd t)) ivs = true ->
  exists outs res, seg_track_lazy opt f (snd t) T ivs = Ok outs /\
                   read_all (fun p => read_back tx pos0 (snd p) (fst p)) outs = Ok res /\
                   map Some (concat res) = expansion f (snd t) /\
                   Forall starts_sync res.
Proof.
  intros Hall Hin Hd Hone Hfv Hst H1 Hs Hne Hi Hg opt T pos0 tx Htx Hpos Hsmall.
  destruct (ref_plan trs t d syncTs sps ivs stss Hall Hin Hfv Hst H1 Hs Hne Hi Hg) as [Ht Hsync].
  assert (Hc : C09Spec.consistent (snd t) = true) by (rewrite Forall_forall in Hall; exact (Hall t Hin)).
  pose proof (tiles_seqN1 _ _ Ht) as Htile. pose proof (tile_all_in _ _ Htile) as Hins.
  destruct (seg_track_lazy_total opt f (snd t) T pos0 Hc Hd Hone Hpos ivs Hins (tiles_ordered _ _ _ Ht) Hsmall) as [outs [Hw Hgd]].
  destruct (seg_track_lazy_pieces opt f (snd t) T pos0 tx Hc Hd Hone Htx ivs outs Hins Hw Hgd) as (ls & Hls & Hr).
  destruct (pieces_end_to_end f (snd t) ivs ls _ outs Htile Hls Hr) as (res & Hr' & He & _).
  exists outs, res. repeat split; try assumption.
  rewrite Hr in Hr'. injection Hr' as <-. exact (pieces_start_sync f (snd t) ivs ls stss Hst Hsync Hls).
Qed.
