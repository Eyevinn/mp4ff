(* C11BridgeProofs.v — the two models of the stts/ctts queries agree on consistent tables: C11Model's
   (run lists, used by the segment plan) and C09Model's (the Go structs, proved against the expansion by C09).
   This makes the definition itrack_of a theorem at the level of every query the plan makes. *)
From V.lib Require Import Base.
From V.c11 Require Import C11Model C11SegProofs.
From V.c09 Require Import C09Model C09Spec C09BaseProofs C09SttsProofs C09CttsProofs.
From V.c05 Require Import C05FragModel.

Lemma sumN_expand_cons c cs d ds : sumN (expand_rl (c :: cs) (d :: ds)) = c * d + sumN (expand_rl cs ds).
Proof. cbn [expand_rl]. rewrite sumN_app, sumN_repeat. lia. Qed.

Lemma gdt_bridge : forall cs ds rem acc, lenN cs = lenN ds ->
  acc + sumN (expand_rl cs ds) < 18446744073709551616 ->
  gdt_loop (combine cs ds) rem acc = decode_time_loop cs ds rem acc.
Proof.
  induction cs as [|c cs IH]; intros ds rem acc Hl Hb.
  - destruct ds; [reflexivity|rewrite lenN_cons, lenN_nil in Hl; lia].
  - destruct ds as [|d ds]; [rewrite lenN_cons, lenN_nil in Hl; lia|]. rewrite !lenN_cons in Hl.
    rewrite sumN_expand_cons in Hb. cbn [combine gdt_loop decode_time_loop].
    destruct (c <=? rem) eqn:E.
    + rewrite u64_small by lia. apply IH; lia.
    + destruct (0 <? rem) eqn:E0.
      * rewrite u64_small by nia. reflexivity.
      * replace rem with 0 by lia. do 2 f_equal. lia.
Qed.

Lemma get_decode_time_bridge tb : C09Spec.consistent tb = true -> forall n,
  C11Model.get_decode_time (combine (t_stts_count tb) (t_stts_delta tb)) n
  = stts_get_decode_time (t_stts_count tb) (t_stts_delta tb) n.
Proof.
  intros H n. destruct (stts_facts tb H) as [L [_ [_ [T _]]]].
  unfold C11Model.get_decode_time, stts_get_decode_time. destruct (n =? 0); [reflexivity|].
  apply gdt_bridge; [exact L|]. unfold C09Spec.durs in T. lia.
Qed.

Lemma cto_loop_spec : forall cnts (offs : list Z) nr acc x, acc < nr ->
  nthN (expand_rl cnts offs) (nr - acc - 1) = Some x -> cto_loop (combine cnts offs) nr acc = Ok x.
Proof.
  induction cnts as [|c cnts IH]; intros offs nr acc x Hlt Hn; [cbn [expand_rl] in Hn; rewrite nthN_nil in Hn; discriminate|].
  destruct offs as [|o offs]; [cbn [expand_rl] in Hn; rewrite nthN_nil in Hn; discriminate|].
  cbn [expand_rl combine cto_loop] in *. rewrite nthN_app, lenN_repeat, nthN_repeat in Hn.
  destruct (nr <=? acc + c) eqn:E.
  - destruct (nr - acc - 1 <? N.of_nat (N.to_nat c)) eqn:E1; [|lia]. congruence.
  - destruct (nr - acc - 1 <? N.of_nat (N.to_nat c)) eqn:E1; [lia|].
    apply IH; [lia|]. replace (nr - (acc + c) - 1) with (nr - acc - 1 - N.of_nat (N.to_nat c)) by lia. exact Hn.
Qed.

Lemma get_cto_bridge tb c : C09Spec.consistent tb = true -> C09Model.t_ctts tb = Some c ->
  forall n, 1 <= n <= nsamples tb ->
  C11Model.get_cto (combine (diffs (ct_end c)) (ct_off c)) n = ctts_get_cto c n.
Proof.
  intros H Hc n Hn. destruct (cto_correct tb c H Hc n Hn) as [x [Hx1 Hx2]]. rewrite Hx2.
  unfold S_cto, ctos_of in Hx1. unfold C11Model.get_cto. destruct (n =? 0) eqn:E; [lia|].
  apply cto_loop_spec; [lia|]. replace (n - 0 - 1) with (n - 1) by lia. exact Hx1.
Qed.

Definition snat_tail (cl dl t accT accN : N) : res N :=
  if negb (dl =? 0) then Err else if (cl =? 1) && (t =? accT) then Ok accN else Err.

Lemma last_default {A} (l : list A) d1 d2 : l <> [] -> last l d1 = last l d2.
Proof.
  induction l as [|x l IH]; intros H; [congruence|]. destruct l as [|y l']; [reflexivity|].
  change (last (x :: y :: l') d1) with (last (y :: l') d1). change (last (x :: y :: l') d2) with (last (y :: l') d2).
  apply IH. discriminate.
Qed.

Lemma snat_bridge : forall cs ds t accT accN lc ld, lenN cs = lenN ds ->
  accT <= t -> accT + sumN (expand_rl cs ds) < 18446744073709551616 -> accN + sumN cs + 1 < 4294967296 ->
  snat_loop (combine cs ds) t accT accN lc ld =
  match sample_at_time_loop cs ds t accT accN with
  | Ok (Some nr, _, _) => Ok nr
  | Ok (None, aT, aN) => snat_tail (last cs lc) (last ds ld) t aT aN
  | Err => Err | Panic => Panic | OutOfFuel => OutOfFuel
  end.
Proof.
  induction cs as [|c cs IH]; intros ds t accT accN lc ld Hl Ht Hb Hn.
  - destruct ds; [|rewrite lenN_cons, lenN_nil in Hl; lia]. cbn [combine snat_loop sample_at_time_loop last].
    unfold snat_tail. destruct (ld =? 0), (lc =? 1), (t =? accT); reflexivity.
  - destruct ds as [|d ds]; [rewrite lenN_cons, lenN_nil in Hl; lia|]. rewrite !lenN_cons in Hl.
    rewrite sumN_expand_cons in Hb. cbn [sumN] in Hn. cbn [combine snat_loop sample_at_time_loop].
    rewrite (u64_small (accT + c * d)) by lia.
    destruct (t <? accT + c * d) eqn:E.
    + rewrite sub64_small by lia. destruct (d =? 0) eqn:Ed; [assert (d = 0) by lia; subst d; rewrite N.mul_0_r in E; lia|].
      pose proof (ceil_le_count (t - accT) c d ltac:(lia)) as Hc. unfold ceil_div in *.
      destruct ((t - accT) mod d =? 0); set (q := (t - accT) / d) in *; clearbody q.
      * rewrite (u32_small q) by (clear - Hc Hn; lia). rewrite u32_small by (clear - Hc Hn; lia). reflexivity.
      * rewrite (u64_small (q + 1)) by (clear - Hc Hn; lia). rewrite (u32_small (q + 1)) by (clear - Hc Hn; lia).
        rewrite u32_small by (clear - Hc Hn; lia). reflexivity.
    + rewrite (N.mul_comm d c). set (cd := c * d) in *. clearbody cd.
      rewrite (u64_small (accT + cd)) by lia. rewrite (u32_small (accN + c)) by lia.
      rewrite (IH ds t (accT + cd) (accN + c) c d); try lia.
      destruct (sample_at_time_loop cs ds t (accT + cd) (accN + c)) as [[[[nr|] aT] aN]| | |]; try reflexivity.
      destruct cs as [|c2 cs2]; destruct ds as [|d2 ds2]; try reflexivity.
      * exfalso. rewrite ?lenN_cons, ?lenN_nil in Hl. lia.
      * exfalso. rewrite ?lenN_cons, ?lenN_nil in Hl. lia.
      * change (last (c :: c2 :: cs2) lc) with (last (c2 :: cs2) lc).
        change (last (d :: d2 :: ds2) ld) with (last (d2 :: ds2) ld).
        rewrite (last_default (c2 :: cs2) c lc), (last_default (d2 :: ds2) d ld) by discriminate. reflexivity.
Qed.

Lemma idx_m1_last {A} (l : list A) d : l <> [] -> idx_m1 l (lenN l) = Ok (last l d).
Proof.
  intros Hne. apply idx_m1_Some.
  - destruct l; [congruence|rewrite lenN_cons; lia].
  - apply nthN_last. exact Hne.
Qed.

Lemma get_sample_nr_at_time_bridge tb : C09Spec.consistent tb = true -> forall t, t < 18446744073709551616 ->
  C11Model.get_sample_nr_at_time (combine (t_stts_count tb) (t_stts_delta tb)) t
  = stts_get_sample_nr_at_time (t_stts_count tb) (t_stts_delta tb) t.
Proof.
  intros H t Ht. destruct (stts_facts tb H) as [L [S [B [T _]]]].
  unfold C11Model.get_sample_nr_at_time, stts_get_sample_nr_at_time.
  destruct (t_stts_count tb) as [|c cs] eqn:Ec.
  - destruct (t_stts_delta tb); [reflexivity|rewrite lenN_cons, lenN_nil in L; lia].
  - destruct (t_stts_delta tb) as [|d ds] eqn:Ed; [rewrite lenN_cons, lenN_nil in L; lia|].
    change (combine (c :: cs) (d :: ds)) with ((c, d) :: combine cs ds).
    change ((c, d) :: combine cs ds) with (combine (c :: cs) (d :: ds)).
    rewrite (snat_bridge (c :: cs) (d :: ds) t 0 0 0 1 L ltac:(lia)).
    + destruct (sample_at_time_loop (c :: cs) (d :: ds) t 0 0) as [[[[nr|] aT] aN]| | |]; cbn [rbind]; try reflexivity.
      cbn [combine]. rewrite L at 1. rewrite (idx_m1_last (d :: ds) 1 ltac:(discriminate)). cbn [rbind].
      rewrite (idx_m1_last (c :: cs) 0 ltac:(discriminate)).
      unfold snat_tail. destruct (negb (last (d :: ds) 1 =? 0)); [reflexivity|]. cbn [rbind]. reflexivity.
    + unfold C09Spec.durs in T. rewrite ?Ec, ?Ed in T. lia.
    + destruct (consistent_parts tb H) as [Hn1 _]. unfold is_u32 in Hn1. rewrite ?Ec in S. cbn [sumN] in *. lia.
Qed.
