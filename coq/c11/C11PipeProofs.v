(* C11PipeProofs.v — the segmenter's in-memory writer end to end: fetch (C11FetchProofs) -> CreateFragment +
   AddFullSampleToTrack -> Fragment.Encode -> decode -> GetFullSamples (C05's round-trip theorem) gives back
   the naive expansion of the input track, segment after segment. *)
From V.lib Require Import Base.
From V.c11 Require Import C11Model C11SegProofs.
From V.c09 Require Import C09Model C09Spec C09BaseProofs C09SttsProofs.
From V.c05 Require Import C05Model C05FragModel C05HistProofs C05ReadProofs C05RoundProofs
  C05LazyProofs C05LazyRoundProofs C05Theorems.
From V.c11 Require Import C11FetchModel C11Spec C11FetchProofs.

Lemma S_full_fields f tb n x : S_full f tb n = Some x ->
  S_decode_time tb n = Some (fs_dts x) /\ S_dur tb n = Some (s_dur (fs_s x)) /\
  S_size tb n = Some (s_size (fs_s x)) /\
  exists o, S_offset_of tb n = Some o /\
            fs_data x = sub_list (pf_bytes f) (N.to_nat o) (N.to_nat (s_size (fs_s x))).
Proof.
  unfold S_full, S_meta, S_bytes.
  destruct (S_flags tb n); [|discriminate]. destruct (S_dur tb n) as [d|]; [|discriminate].
  destruct (S_size tb n) as [s|]; [|discriminate].
  destruct (match C09Model.t_ctts tb with Some c => S_cto c n | None => Some 0%Z end); [|discriminate].
  destruct (S_decode_time tb n) as [t|]; [|discriminate].
  destruct (S_offset_of tb n) as [o|]; [|discriminate].
  intros E. injection E as <-. cbn. repeat split. eexists. split; reflexivity.
Qed.

Lemma S_full_sized f tb n x : C09Spec.consistent tb = true -> data_ok f tb = true -> 1 <= n <= nsamples tb ->
  S_full f tb n = Some x -> sized_f x.
Proof.
  intros H Hd Hn Hx. destruct (S_full_fields f tb n x Hx) as [_ [_ [Hs [o [Ho Hdat]]]]].
  destruct (sample_bytes_ok f tb n o _ Hd Hn Ho Hs) as [_ Hle].
  unfold sized_f. rewrite Hdat. unfold lenN in *. rewrite sub_list_length; lia.
Qed.

Lemma starts_step ds : forall acc i t d,
  nthN (starts ds acc) i = Some t -> nthN ds i = Some d ->
  t + d <= acc + sumN ds /\ (forall t', nthN (starts ds acc) (i + 1) = Some t' -> t' = t + d).
Proof.
  induction ds as [|d0 ds IH]; intros acc i t d Ht Hd; [discriminate|].
  cbn [starts] in *. rewrite nthN_cons in Ht, Hd. cbn [sumN]. destruct (i =? 0) eqn:E.
  - injection Ht as <-. injection Hd as <-. split; [lia|].
    intros t'. replace i with 0 by lia. cbn [N.add]. rewrite nthN_cons. cbn [N.eqb Pos.eqb].
    destruct ds as [|d1 ds']; cbn [starts]; [rewrite nthN_nil; discriminate|].
    rewrite nthN_cons. cbn. intros E'. injection E' as <-. reflexivity.
  - destruct (IH (acc + d0) (i - 1) t d Ht Hd) as [H1 H2]. split; [lia|].
    intros t'. rewrite nthN_cons. destruct (i + 1 =? 0) eqn:E2; [lia|].
    replace (i + 1 - 1) with (i - 1 + 1) by lia. apply H2.
Qed.

Lemma nthN_starts_bound ds : forall acc i t, nthN (starts ds acc) i = Some t -> t <= acc + sumN ds.
Proof.
  induction ds as [|d0 ds IH]; intros acc i t Ht; [discriminate|].
  cbn [starts sumN] in *. rewrite nthN_cons in Ht. destruct (i =? 0).
  - injection Ht as <-. lia.
  - specialize (IH _ _ _ Ht). lia.
Qed.

(* decode times of consecutive samples of the expansion are consistent with the durations *)
Lemma expansion_consistent f tb : C09Spec.consistent tb = true ->
  forall k nr l, all_in tb (seqN nr k) -> map Some l = map (S_full f tb) (seqN nr k) -> C05RoundProofs.consistent l.
Proof.
  intros H. destruct (stts_facts tb H) as [_ [_ [_ [Htot _]]]].
  assert (Hstep : forall k nr l, all_in tb (seqN nr k) -> map Some l = map (S_full f tb) (seqN nr k) ->
                  match l with [] => True | x :: _ => retime (fs_dts x) l = l end).
  { induction k as [|k IH]; intros nr l Hin Hl.
    - destruct l; [exact I|discriminate].
    - destruct l as [|x l']; [discriminate|]. cbn [seqN map] in Hl. injection Hl as Hx Hl'.
      apply all_in_cons in Hin. destruct Hin as [Hnr Hin].
      symmetry in Hx. destruct (S_full_fields f tb nr x Hx) as [Ht [Hd _]].
      cbn [retime]. destruct x as [s t dat]. cbn [fs_s fs_dts fs_data] in *. f_equal.
      specialize (IH (nr + 1) l' Hin Hl'). destruct l' as [|y l'']; [reflexivity|].
      destruct k as [|k']; [discriminate|]. cbn [seqN map] in Hl'. injection Hl' as Hy _.
      symmetry in Hy. destruct (S_full_fields f tb (nr + 1) y Hy) as [Hty _].
      unfold S_decode_time, S_dur in *. destruct (nr =? 0) eqn:E0; [lia|]. destruct (nr + 1 =? 0) eqn:E1; [lia|].
      destruct (starts_step (C09Spec.durs tb) 0 (nr - 1) t (s_dur s) Ht Hd) as [Hb Hn].
      replace (nr + 1 - 1) with (nr - 1 + 1) in Hty by lia. specialize (Hn _ Hty).
      rewrite u64_small by lia. rewrite <- Hn. exact IH. }
  intros k nr l Hin Hl. specialize (Hstep k nr l Hin Hl). unfold C05RoundProofs.consistent.
  destruct l as [|x l']; [exact I|]. split; [|exact Hstep].
  destruct k as [|k]; [discriminate|]. cbn [seqN map] in Hl. injection Hl as Hx _. symmetry in Hx.
  destruct (S_full_fields f tb nr x Hx) as [Ht _]. unfold S_decode_time in Ht. destruct (nr =? 0); [discriminate|].
  pose proof (nthN_starts_bound _ _ _ _ Ht). lia.
Qed.

Lemma expansion_sized f tb : C09Spec.consistent tb = true -> data_ok f tb = true ->
  forall ns l, all_in tb ns -> map Some l = map (S_full f tb) ns -> Forall sized_f l.
Proof.
  intros H Hd. induction ns as [|n ns IH]; intros l Hin Hl.
  - destruct l; [constructor|discriminate].
  - destruct l as [|x l']; [discriminate|]. cbn [map] in Hl. injection Hl as Hx Hl'.
    apply all_in_cons in Hin. destruct Hin as [Hn Hin].
    constructor; [apply (S_full_sized f tb n x H Hd Hn); symmetry; exact Hx|apply IH; assumption].
Qed.

Lemma fulls_data_len f tb : C09Spec.consistent tb = true -> data_ok f tb = true ->
  forall k nr l, all_in tb (seqN nr k) -> map Some l = map (S_full f tb) (seqN nr k) ->
  lenN (flat_map fs_data l) = sumN (sublist (sizes tb) (nr - 1) (N.of_nat k)).
Proof.
  intros H Hd. induction k as [|k IH]; intros nr l Hin Hl.
  - destruct l; [reflexivity|discriminate].
  - destruct l as [|x l']; [discriminate|]. cbn [seqN map] in Hl. injection Hl as Hx Hl'. symmetry in Hx.
    apply all_in_cons in Hin. destruct Hin as [Hnr Hin].
    destruct (S_full_fields f tb nr x Hx) as [_ [_ [Hs _]]].
    pose proof (S_full_sized f tb nr x H Hd Hnr Hx) as Hsz. unfold sized_f in Hsz.
    unfold S_size in Hs. destruct (nr =? 0) eqn:E0; [lia|].
    rewrite (sublist_S _ _ _ _ Hs). cbn [flat_map sumN]. rewrite lenN_app, <- Hsz, (IH (nr + 1) l' Hin Hl').
    replace (nr + 1 - 1) with (nr - 1 + 1) by lia. reflexivity.
Qed.

Lemma map_Some_length {A} (l : list A) (m : list (option A)) : map Some l = m -> length l = length m.
Proof. intros <-. rewrite map_length. reflexivity. Qed.

Lemma seqN_length : forall k s, length (seqN s k) = k.
Proof. induction k as [|k IH]; intros s; cbn [seqN length]; [reflexivity|rewrite IH; reflexivity]. Qed.

Lemma range_seqN a b : C11Model.range (a, b) = seqN a (N.to_nat (b + 1 - a)).
Proof.
  unfold C11Model.range. cbn [fst snd]. rewrite <- N2Nat.inj_sub. generalize (N.to_nat (b + 1 - a)) as k.
  intros k. revert a. induction k as [|k IH]; intros a; [reflexivity|].
  cbn [seq map seqN]. rewrite N2Nat.id. f_equal.
  replace (S (N.to_nat a)) with (N.to_nat (a + 1)) by lia. apply IH.
Qed.

Lemma seqN1_seqN n : seqN1 n = seqN 1 (N.to_nat n).
Proof.
  rewrite <- (N.add_sub n 1) at 2. rewrite <- (range_seqN 1 n). unfold seqN1, C11Model.range. cbn [fst snd].
  do 2 f_equal. lia.
Qed.

(* l is what the expansion of the track holds for the sample numbers of iv *)
Definition reads_as (f : pfile) (tb : tables) (iv : N * N) (l : list fullsample) : Prop :=
  map Some l = map (S_full f tb) (C11Model.range iv).

Lemma fetch_or_skip_ordered f tb iv l : fetch_or_skip f tb iv = Ok l -> fst iv <= snd iv + 1.
Proof. unfold fetch_or_skip, fetch_interval. destruct (snd iv + 1 <? fst iv) eqn:E; [discriminate|lia]. Qed.

Lemma fetch_or_skip_ok f tb iv : C09Spec.consistent tb = true -> data_ok f tb = true ->
  fst iv <= snd iv + 1 -> all_in tb (C11Model.range iv) ->
  exists l, fetch_or_skip f tb iv = Ok l /\ reads_as f tb iv l.
Proof.
  intros H Hd Ho Hin. destruct iv as [a b]. unfold reads_as, fetch_or_skip, fetch_interval. cbn [fst snd] in *.
  rewrite range_seqN in *. destruct (b + 1 <? a) eqn:E; [lia|]. apply (fetch_loop_ok f tb H Hd), Hin.
Qed.

Lemma fetch_or_skip_reads f tb iv l : C09Spec.consistent tb = true -> data_ok f tb = true ->
  all_in tb (C11Model.range iv) -> fetch_or_skip f tb iv = Ok l -> fst iv <= snd iv + 1 /\ reads_as f tb iv l.
Proof.
  intros H Hd Hin Hl. pose proof (fetch_or_skip_ordered f tb iv l Hl) as Ho. split; [exact Ho|].
  destruct (fetch_or_skip_ok f tb iv H Hd Ho Hin) as (l' & Hl' & Hm). rewrite Hl in Hl'. injection Hl' as <-. exact Hm.
Qed.

(* what C05's round trip asks of the samples of a fragment, and how big the fragment gets *)
Lemma interval_facts f tb iv l : C09Spec.consistent tb = true -> data_ok f tb = true ->
  fst iv <= snd iv + 1 -> all_in tb (C11Model.range iv) -> reads_as f tb iv l ->
  Forall sized_f l /\ C05RoundProofs.consistent l /\
  lenN l = snd iv + 1 - fst iv /\ lenN (flat_map fs_data l) = S_total_size tb (fst iv) (snd iv).
Proof.
  intros H Hd Ho Hin Hl. destruct iv as [a b]. unfold reads_as in Hl. cbn [fst snd] in *. rewrite range_seqN in *.
  split; [exact (expansion_sized f tb H Hd _ l Hin Hl)|]. split; [exact (expansion_consistent f tb H _ a l Hin Hl)|].
  split.
  - apply map_Some_length in Hl. rewrite map_length, seqN_length in Hl. unfold lenN. lia.
  - rewrite (fulls_data_len f tb H Hd _ a l Hin Hl), N2Nat.id. reflexivity.
Qed.

Lemma interval_length_le tb iv : all_in tb (C11Model.range iv) -> snd iv + 1 - fst iv <= nsamples tb.
Proof.
  destruct iv as [a b]. rewrite range_seqN. cbn [fst snd]. intros Hin.
  destruct (N.le_gt_cases a b) as [Hab|Hab]; [|lia].
  assert (1 <= a <= nsamples tb) by (apply Hin, in_seqN; lia).
  assert (1 <= b <= nsamples tb) by (apply Hin, in_seqN; lia). lia.
Qed.

Lemma tile_all_in tb ivs : concat (map C11Model.range ivs) = seqN1 (nsamples tb) ->
  Forall (fun iv => all_in tb (C11Model.range iv)) ivs.
Proof.
  intros Htile. apply Forall_forall. intros iv Hiv x Hx.
  assert (Hi : In x (concat (map C11Model.range ivs))).
  { apply in_concat. exists (C11Model.range iv). split; [apply in_map; exact Hiv|exact Hx]. }
  rewrite Htile, seqN1_seqN in Hi. apply in_seqN in Hi. lia.
Qed.

Lemma tile_expansion f tb ivs : concat (map C11Model.range ivs) = seqN1 (nsamples tb) ->
  map (S_full f tb) (concat (map C11Model.range ivs)) = expansion f tb.
Proof.
  intros ->. rewrite seqN1_seqN. unfold expansion, S_interval. rewrite N.add_sub. reflexivity.
Qed.

(* ls holds one sample list per interval; the writers make a segment of each that is not empty *)
Lemma concat_nonempty_pieces {A} (ls : list (list A)) : concat (nonempty_pieces ls) = concat ls.
Proof.
  unfold nonempty_pieces. induction ls as [|[|x l] ls IH]; cbn [filter concat app]; [|exact IH|rewrite IH]; reflexivity.
Qed.

Lemma nonempty_pieces_nonempty {A} (ls : list (list A)) : Forall (fun o => o <> []) (nonempty_pieces ls).
Proof. apply Forall_forall. intros o Ho. apply filter_In in Ho. destruct o; [destruct Ho; discriminate|discriminate]. Qed.

Lemma pieces_expansion f tb ivs ls : Forall2 (reads_as f tb) ivs ls ->
  map Some (concat ls) = map (S_full f tb) (concat (map C11Model.range ivs)).
Proof.
  induction 1 as [|iv l ivs ls Hl _ IH]; [reflexivity|]. cbn [map concat]. rewrite !map_app, Hl, IH. reflexivity.
Qed.

Lemma pieces_end_to_end {A} f tb ivs ls (rd : A -> res (list fullsample)) fes :
  concat (map C11Model.range ivs) = seqN1 (nsamples tb) -> Forall2 (reads_as f tb) ivs ls ->
  read_all rd fes = Ok (nonempty_pieces ls) ->
  exists outs, read_all rd fes = Ok outs /\ map Some (concat outs) = expansion f tb /\ Forall (fun o => o <> []) outs.
Proof.
  intros Htile Hls Hr. exists (nonempty_pieces ls). split; [exact Hr|]. split; [|apply nonempty_pieces_nonempty].
  rewrite concat_nonempty_pieces, (pieces_expansion f tb ivs ls Hls). apply tile_expansion, Htile.
Qed.

Definition seg_guard (pos0 : N) (fe : frag) : bool :=
  (moof_size fe + md_header_size (fr_mdat fe) + lenN (md_data (fr_mdat fe)) <? 2147483648)
  && (pos0 + fr_pre fe <? 4611686018427387904).

Lemma add_fulls_run T : forall l fr fr', add_fulls fr T l = Ok fr' ->
  run_ops fr (map (op_of T) l) = (repeat COk (length l), Some fr').
Proof.
  induction l as [|s l IH]; intros fr fr' H; cbn [add_fulls map run_ops repeat length] in *.
  - injection H as <-. reflexivity.
  - destruct (step fr (op_of T s)) as [fr1| | |] eqn:E; cbn [rbind] in H; try discriminate.
    rewrite (IH _ _ H). reflexivity.
Qed.

Lemma added1_fulls_ops T l : added1_fulls T (map (op_of T) l) = l.
Proof.
  unfold added1_fulls. induction l as [|s l IH]; [reflexivity|].
  cbn [map filter]. unfold hits at 1. cbn [op_of op_track]. rewrite N.eqb_refl. cbn [map].
  rewrite IH. f_equal. destruct s as [s t d]. reflexivity.
Qed.

Lemma encode_frag_data opt fr fe : encode_frag opt fr = Ok fe -> md_data (fr_mdat fe) = md_data (fr_mdat fr).
Proof.
  intros H. pose proof (encode_frag_meta opt fr fr) as G. rewrite H in G.
  assert (Hm : same_meta fr fr) by (repeat split).
  destruct (G Hm eq_refl) as [_ [_ [[_ [Hd _]] _]]]. exact Hd.
Qed.

Lemma write_read_segment opt T l fe pos0 (tx : C05Model.trex) :
  l <> [] -> lenN l < 4294967296 -> Forall sized_f l -> C05RoundProofs.consistent l ->
  write_segment opt T l = Ok fe -> seg_guard pos0 fe = true ->
  read_back tx pos0 [] fe = Ok (if tx_track tx =? T then l else []).
Proof.
  intros Hne Hlen Hsz Hc Hw Hg. unfold write_segment in Hw.
  destruct (add_fulls (create_fragment T) T l) as [fr| | |] eqn:Ea; cbn [rbind] in Hw; try discriminate.
  apply add_fulls_run in Ea. unfold seg_guard in Hg. apply andb_prop in Hg. destruct Hg as [Hg1 Hg2].
  pose proof (encode_frag_data opt fr fe Hw) as Hdat.
  unfold read_back.
  rewrite (C05_roundtrip_single T (map (op_of T) l) (repeat COk (length l)) fr opt fe pos0 tx 0 0 0 []).
  - rewrite added1_fulls_ops. reflexivity.
  - rewrite map_length. exact Hlen.
  - clear. induction l as [|s l IH]; [reflexivity|]. cbn [map forallb op_of is_full]. exact IH.
  - clear - Hsz. induction Hsz as [|s l Hs _ IH]; [constructor|]. cbn [map]. constructor; [|exact IH].
    destruct s as [s t d]. exact Hs.
  - exact Ea.
  - exact Hw.
  - rewrite added1_fulls_ops. exact Hne.
  - rewrite <- Hdat. lia.
  - lia.
  - rewrite added1_fulls_ops. exact Hc.
Qed.

Lemma read_all_app {A} (rd : A -> res (list fullsample)) x r o outs :
  rd x = Ok o -> read_all rd r = Ok outs -> read_all rd (x :: r) = Ok (o :: outs).
Proof. intros H1 H2. cbn [read_all]. rewrite H1, H2. reflexivity. Qed.

Lemma seg_track_pieces opt f tb T pos0 (tx : C05Model.trex) :
  C09Spec.consistent tb = true -> data_ok f tb = true -> tx_track tx = T ->
  forall ivs fes, Forall (fun iv => all_in tb (C11Model.range iv)) ivs ->
  seg_track opt f tb T ivs = Ok fes ->
  Forall (fun fe => seg_guard pos0 fe = true) fes ->
  exists ls, Forall2 (reads_as f tb) ivs ls /\ read_all (read_back tx pos0 []) fes = Ok (nonempty_pieces ls).
Proof.
  intros H Hd Htx. destruct (stts_facts tb H) as [_ [_ [HN _]]].
  induction ivs as [|iv ivs IH]; intros fes Hin Hs Hg; cbn [seg_track] in Hs.
  - injection Hs as <-. exists []. split; [constructor|reflexivity].
  - pose proof (Forall_inv Hin) as Hin1. apply Forall_inv_tail in Hin.
    apply rbind_ok in Hs. destruct Hs as (l & Hl & Hs).
    destruct (fetch_or_skip_reads f tb iv l H Hd Hin1 Hl) as [Ho Hm].
    destruct (interval_facts f tb iv l H Hd Ho Hin1 Hm) as (Hsz & Hc & Hlen & _).
    pose proof (interval_length_le tb iv Hin1) as Hle.
    destruct l as [|x l'].
    + destruct (IH fes Hin Hs Hg) as (ls & Hls & Hr). exists ([] :: ls). split; [constructor; assumption|exact Hr].
    + apply rbind_ok in Hs. destruct Hs as (fe & Hw & Hs). apply rbind_ok in Hs. destruct Hs as (r & Hr & Hs).
      injection Hs as <-. pose proof (Forall_inv Hg) as Hg1. apply Forall_inv_tail in Hg. cbv beta in Hg1.
      destruct (IH r Hin Hr Hg) as (ls & Hls & Hrd). exists ((x :: l') :: ls). split; [constructor; assumption|].
      cbn [nonempty_pieces filter]. apply read_all_app; [|exact Hrd].
      rewrite (write_read_segment opt T (x :: l') fe pos0 tx); try assumption; [|discriminate|lia].
      rewrite Htx, N.eqb_refl. reflexivity.
Qed.

(* ------------------------------------------------------------------ from the file's tables to the plan *)
Lemma stts_total_combine cs : forall ds, lenN cs = lenN ds -> stts_total (combine cs ds) = sumN cs.
Proof.
  induction cs as [|c cs IH]; intros ds Hl; [reflexivity|].
  destruct ds as [|d ds]; [rewrite lenN_cons, lenN_nil in Hl; lia|].
  cbn [combine stts_total sumN]. rewrite IH; [reflexivity|]. rewrite !lenN_cons in Hl. lia.
Qed.

Lemma sorted_lt_from l : forall lo, match l with [] => True | x :: _ => lo <= x end ->
  sorted_lt l = true -> sorted_from lo l = true.
Proof.
  induction l as [|x t IH]; intros lo Hlo Hs; [reflexivity|].
  cbn [sorted_from]. apply andb_true_intro. split; [lia|].
  destruct t as [|y t']; [reflexivity|]. cbn [sorted_lt] in Hs. apply andb_prop in Hs. destruct Hs as [Hxy Hs].
  apply IH; [lia|exact Hs].
Qed.

Lemma itrack_wf (t : itrack) : C09Spec.consistent (snd t) = true ->
  wf_track (itrack_of t) = true /\ (C11Model.t_nsamples (itrack_of t) <? 4294967296) = true /\
  C11Model.t_nsamples (itrack_of t) = nsamples (snd t).
Proof.
  intros H. destruct t as [[v ts] tb]. cbn [snd fst] in *. unfold itrack_of, track_of, wf_track. cbn [fst snd].
  cbn [C11Model.t_stts C11Model.t_nsamples C11Model.t_stss].
  destruct (stts_facts tb H) as [L [S [B _]]].
  destruct (stsz_facts tb H) as [_ [HN _]].
  rewrite stts_total_combine by exact L. split; [|split; [lia|lia]].
  apply andb_true_intro. split; [lia|].
  destruct (consistent_parts tb H) as [_ [_ [_ [_ [_ [_ [Hss _]]]]]]]. unfold stss_ok in Hss.
  destruct (C09Model.t_stss tb) as [l|]; [|reflexivity].
  apply andb_prop in Hss. destruct Hss as [Hs _]. apply sorted_lt_from; [destruct l; [exact I|lia]|exact Hs].
Qed.

Lemma Forall2_map_l {A B C} (g : A -> B) (P : B -> C -> Prop) : forall l l2,
  Forall2 P (map g l) l2 -> Forall2 (fun x y => P (g x) y) l l2.
Proof.
  induction l as [|x l IH]; intros l2 H; inversion H; subst; constructor; auto.
Qed.

Lemma plan_itracks (trs : list itrack) d ivss :
  Forall (fun t => C09Spec.consistent (snd t) = true) trs ->
  segment_plan (map itrack_of trs) d = Ok ivss ->
  Forall2 (fun t ivs => tiles 1 ivs (nsamples (snd t))) trs ivss.
Proof.
  intros Hall Hp. rewrite Forall_forall in Hall.
  assert (Hwf : wf_tracks (map itrack_of trs) = true /\ small_tracks (map itrack_of trs) = true).
  { unfold wf_tracks, small_tracks. rewrite !forallb_forall. split; intros x Hx; apply in_map_iff in Hx;
      destruct Hx as [t [<- Ht]]; destruct (itrack_wf t (Hall t Ht)) as [H1 [H2 _]]; assumption. }
  eapply Forall2_impl_in; [|exact (Forall2_map_l _ _ _ _ (plan_tiles _ d ivss (proj1 Hwf) (proj2 Hwf) Hp))].
  intros t ivs Hin Ht. cbv beta in Ht. destruct (itrack_wf t (Hall t Hin)) as [_ [_ Hn]]. rewrite <- Hn. exact Ht.
Qed.
