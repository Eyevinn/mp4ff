(* C11SyncBoolProofs.v — the decoded-level sync theorems under ONE boolean hypothesis on the input
   (C11Spec.ref_sync_hyps), the form the correspondence evaluates on the files the built tool was run on. *)
From V.lib Require Import Base.
From V.c11 Require Import C11Model.
From V.c09 Require Import C09Model C09Spec.
From V.c05 Require Import C05FragModel.
From V.c11 Require Import C11Spec C11TotalProofs.

Lemma first_video_at_sound : forall trs k, first_video_at trs k = true ->
  exists t, nth_error trs k = Some t /\ first_video (map itrack_of trs) = Some (itrack_of t).
Proof.
  induction trs as [|t r IH]; intros k H; [destruct k; discriminate|].
  destruct k as [|k]; cbn [first_video_at] in H.
  - exists t. split; [reflexivity|]. cbn [map first_video].
    destruct t as [[v ts] tb]. cbn [fst] in H. subst v. reflexivity.
  - apply andb_prop in H. destruct H as [Hv Hr]. destruct (IH k Hr) as [t' [Hn Hf]].
    exists t'. split; [exact Hn|]. cbn [map first_video].
    destruct t as [[v ts] tb]. cbn [fst] in Hv. destruct v; [discriminate|]. exact Hf.
Qed.

Lemma seg_small_b_eq tb iv : seg_small_b tb iv = seg_small tb iv.
Proof. reflexivity. Qed.

(* what the boolean says, as the hypotheses of ref_segments_start_sync / ref_segments_start_sync_lazy *)
Lemma ref_sync_hyps_sound lz f trs k d : ref_sync_hyps lz f trs k d = true ->
  exists t syncTs sps ivs stss,
    nth_error trs k = Some t /\
    Forall (fun t => C09Spec.consistent (snd t) = true) trs /\ In t trs /\ data_ok f (snd t) = true /\
    (lz = true -> one_offset_box (snd t) = true) /\
    first_video (map itrack_of trs) = Some (itrack_of t) /\
    C09Model.t_stss (snd t) = Some stss /\ In 1 stss /\
    get_segment_starts (map itrack_of trs) d = Ok (syncTs, sps) /\ sps <> [] /\
    get_segment_intervals syncTs sps (itrack_of t) = Ok ivs /\
    nonzero_dur_syncs (itrack_of t) sps = true /\
    forallb (seg_small (snd t)) ivs = true.
Proof.
  unfold ref_sync_hyps. intros H.
  apply andb_prop in H. destruct H as [H H3]. apply andb_prop in H. destruct H as [H1 H2].
  destruct (first_video_at_sound trs k H2) as [t [Hn Hfv]]. rewrite Hn in H3.
  apply andb_prop in H3. destruct H3 as [H3 H7]. apply andb_prop in H3. destruct H3 as [H3 H6].
  apply andb_prop in H3. destruct H3 as [H4 H5].
  destruct (C09Model.t_stss (snd t)) as [stss|] eqn:Est; [|discriminate].
  destruct (get_segment_starts (map itrack_of trs) d) as [[syncTs sps]| | |] eqn:Es; try discriminate.
  apply andb_prop in H7. destruct H7 as [H7 H8].
  destruct (get_segment_intervals syncTs sps (itrack_of t)) as [ivs| | |] eqn:Ei; try discriminate.
  apply andb_prop in H8. destruct H8 as [H8 H9].
  exists t, syncTs, sps, ivs, stss. split; [exact Hn|].
  split. { rewrite Forall_forall. rewrite forallb_forall in H1. exact H1. }
  split. { apply (nth_error_In _ _ Hn). }
  split; [exact H4|].
  split. { intros ->. cbn [negb orb] in H5. exact H5. }
  split; [exact Hfv|]. split; [first [exact Est|reflexivity]|].
  split. { apply existsb_exists in H6. destruct H6 as [x [Hx Hx1]]. apply N.eqb_eq in Hx1. subst x. exact Hx. }
  split; [first [exact Es|reflexivity]|].
  split. { destruct sps; [discriminate|discriminate]. }
  split; [first [exact Ei|reflexivity]|]. split; [exact H8|].
  rewrite forallb_forall in H9 |- *. intros iv Hiv. rewrite <- seg_small_b_eq. apply H9, Hiv.
Qed.

