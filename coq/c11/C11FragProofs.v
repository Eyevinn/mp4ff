(* C11FragProofs.v — Resegment, Fragmentify and combine-segs conserve the sample sequence. *)
From V.lib Require Import Base.
From V.c11 Require Import C11Model.

Lemma slice_mid {A} (pre cur rest : list A) :
  slice (pre ++ cur ++ rest) (S (length pre)) (S (length pre + length cur)) = cur.
Proof.
  unfold slice. cbn [Nat.sub]. rewrite Nat.sub_0_r, skipn_app, skipn_all, Nat.sub_diag. cbn [skipn app].
  replace (length pre + length cur - length pre)%nat with (length cur) by lia.
  rewrite firstn_app, firstn_all, Nat.sub_diag. cbn [firstn]. apply app_nil_r.
Qed.

Section Reseg.
Variable d : N.
Variable all : list fsample.

(* pre: the samples already flushed into earlier segments, cur: those collected for the segment under
   construction, rest: not yet looked at.  The first segment produced from here starts with cur. *)
Lemma reseg_loop_spec : forall rest pre cur seq, all = pre ++ cur ++ rest ->
  exists first others,
    reseg_loop d all rest (length pre + length cur) seq (S (length pre)) = (cur ++ first) :: others /\
    concat (first :: others) = rest /\ segs_start_ok d seq others.
Proof.
  induction rest as [|s t IH]; intros pre cur seq E; cbn [reseg_loop].
  - exists [], []. rewrite app_nil_r. repeat split.
    replace (length all + 1)%nat with (S (length pre + length cur)) by (rewrite E, !app_length; cbn [length]; lia).
    rewrite E, slice_mid. reflexivity.
  - destruct ((u64 (d * seq) <=? pres_time s) && is_sync s) eqn:Ec.
    + destruct (IH (pre ++ cur) [s] (seq + 1)) as (first & others & El & Ecat & Hst); [rewrite E, <- app_assoc; reflexivity|].
      rewrite app_length, Nat.add_1_r in El. rewrite Nat.add_1_r, El, E, slice_mid.
      exists [], (([s] ++ first) :: others). rewrite app_nil_r. split; [reflexivity|]. split; [cbn [concat app] in *; rewrite Ecat; reflexivity|].
      apply andb_true_iff in Ec. cbn [segs_start_ok app]. split; [split; [tauto|lia]|exact Hst].
    + destruct (IH pre (cur ++ [s]) seq) as (first & others & El & Ecat & Hst); [rewrite E, <- app_assoc; reflexivity|].
      rewrite app_length, Nat.add_assoc, Nat.add_1_r in El. rewrite El.
      exists (s :: first), others. rewrite <- app_assoc. split; [reflexivity|]. split; [|exact Hst].
      cbn [concat app] in *. rewrite Ecat. reflexivity.
Qed.
End Reseg.

Lemma resegment_conserves d ss segs :
  resegment d ss = Ok segs ->
  concat segs = ss /\
  exists first others, segs = first :: others /\ segs_start_ok d 1 others.
Proof.
  unfold resegment. destruct (d =? 0); [discriminate|].
  destruct ss as [|s0 t0] eqn:Ess; [discriminate|]. rewrite <- Ess. intros H. inversion H; subst segs. clear H.
  destruct (reseg_loop_spec d ss ss [] [] 1 eq_refl) as (first & others & El & Ecat & Hst).
  cbn [length Nat.add app] in El. rewrite El. split; [exact Ecat|]. exists first, others. split; [reflexivity|exact Hst].
Qed.

Definition frag_inv (done : list (list fsample)) (cur : option (list fsample)) : Prop :=
  Forall (fun f => f <> []) done /\ (forall c, cur = Some c -> c <> []).

Lemma close_frag_nonempty done cur : frag_inv done cur -> Forall (fun f => f <> []) (close_frag done cur).
Proof.
  intros [H1 H2]. destruct cur as [c|]; cbn [close_frag]; [|exact H1].
  apply Forall_app. split; [exact H1|]. constructor; [apply H2; reflexivity | constructor].
Qed.

Lemma fragmentify_samples_spec dur : forall ss cum done cur,
  frag_inv done cur -> (cum <> 0 -> cur <> None) ->
  exists cum' done' cur',
    fragmentify_samples dur ss cum done cur = Ok (cum', done', cur') /\
    frag_inv done' cur' /\ (cum' <> 0 -> cur' <> None) /\
    concat (close_frag done' cur') = concat (close_frag done cur) ++ ss.
Proof.
  induction ss as [|s t IH]; intros cum done cur HJ HK; cbn [fragmentify_samples].
  - exists cum, done, cur. rewrite app_nil_r. repeat split; try assumption; apply HJ.
  - destruct (cum =? 0) eqn:Ec.
    + set (cum1 := u32 (cum + fs_dur s)).
      destruct (IH (if dur <=? cum1 then 0 else cum1) (close_frag done cur) (Some ([] ++ [s])))
        as (c' & d' & u' & E & J' & K' & C').
      * split; [apply close_frag_nonempty; exact HJ|]. intros c Hc. inversion Hc. discriminate.
      * intros _. discriminate.
      * exists c', d', u'. split; [exact E|]. split; [exact J'|]. split; [exact K'|].
        rewrite C'. cbn [close_frag app]. rewrite concat_app. cbn [concat]. rewrite app_nil_r, <- app_assoc. reflexivity.
    + destruct cur as [c|]; [|exfalso; apply HK; [lia | reflexivity]].
      set (cum1 := u32 (cum + fs_dur s)).
      destruct (IH (if dur <=? cum1 then 0 else cum1) done (Some (c ++ [s])))
        as (c' & d' & u' & E & J' & K' & C').
      * split; [apply HJ|]. intros c0 Hc. inversion Hc. destruct c; discriminate.
      * intros _. discriminate.
      * exists c', d', u'. split; [exact E|]. split; [exact J'|]. split; [exact K'|].
        rewrite C'. cbn [close_frag]. rewrite !concat_app. cbn [concat]. rewrite !app_nil_r, <- !app_assoc. reflexivity.
Qed.

Lemma fragmentify_frags_spec dur : forall frags cum done cur,
  frag_inv done cur -> (cum <> 0 -> cur <> None) ->
  exists outs, fragmentify_frags dur frags cum done cur = Ok outs /\
               Forall (fun f => f <> []) outs /\
               concat outs = concat (close_frag done cur) ++ concat frags.
Proof.
  induction frags as [|f r IH]; intros cum done cur HJ HK; cbn [fragmentify_frags].
  - exists (close_frag done cur). cbn [concat]. rewrite app_nil_r.
    split; [reflexivity | split; [apply close_frag_nonempty; exact HJ | reflexivity]].
  - destruct (fragmentify_samples_spec dur f cum done cur HJ HK) as (c' & d' & u' & E & J' & K' & C').
    rewrite E. cbn [rbind]. destruct (IH c' d' u' J' K') as (outs & Eo & Fo & Co).
    exists outs. split; [exact Eo | split; [exact Fo|]]. rewrite Co, C'. cbn [concat]. rewrite app_assoc. reflexivity.
Qed.

Lemma fragmentify_conserves dur frags :
  exists outs, fragmentify dur frags = Ok outs /\ concat outs = concat frags /\ Forall (fun f => f <> []) outs.
Proof.
  unfold fragmentify.
  destruct (fragmentify_frags_spec dur frags 0 [] None) as (outs & E & F & C).
  - split; [constructor | intros c H; discriminate].
  - intros H; congruence.
  - exists outs. cbn [close_frag concat app] in C. auto.
Qed.

(* combine-segs: reading without trex *)
Lemma add_defaults_ext t : forall ss i d1 d2 z1 z2 f1 f2,
  (ti_has_dur t = true \/ d1 = d2) ->
  (ti_has_size t = true \/ z1 = z2) ->
  (ti_has_flags t = true \/ f1 = f2 \/ (ti_has_first_flags t = true /\ i = O /\ (length ss <= 1)%nat)) ->
  add_defaults t d1 z1 f1 i ss = add_defaults t d2 z2 f2 i ss.
Proof.
  induction ss as [|[s sz] r IH]; intros i d1 d2 z1 z2 f1 f2 Hd Hz Hf; cbn [add_defaults]; [reflexivity|].
  f_equal.
  - f_equal. f_equal.
    + destruct (ti_has_dur t); [reflexivity | destruct Hd; [discriminate | assumption]].
    + destruct (ti_has_flags t); [reflexivity|].
      destruct Hf as [Hf | [Hf | (Hf1 & Hf2 & _)]]; [discriminate | subst; reflexivity |].
      subst i. rewrite Hf1. reflexivity.
    + destruct (ti_has_size t); [reflexivity | destruct Hz; [discriminate | assumption]].
  - destruct Hf as [Hf | [Hf | (Hf1 & Hf2 & Hf3)]].
    + apply IH; auto.
    + apply IH; auto.
    + destruct r; [reflexivity | cbn [length] in Hf3; lia].
Qed.

Lemma pick_some v tx tx' : pick (Some v) tx = pick (Some v) tx'.
Proof. reflexivity. Qed.

Lemma read_trun_indep f t sizes tx :
  trun_indep_of_trex f t = true -> read_trun f None t sizes = read_trun f (Some tx) t sizes.
Proof.
  unfold trun_indep_of_trex, read_trun. intros H.
  apply andb_true_iff in H. destruct H as [H Hf]. apply andb_true_iff in H. destruct H as [Hd Hz].
  apply add_defaults_ext.
  - destruct (ti_has_dur t); [left; reflexivity|]. right. destruct (fi_def_dur f); [reflexivity | discriminate].
  - destruct (ti_has_size t); [left; reflexivity|]. right. destruct (fi_def_size f); [reflexivity | discriminate].
  - destruct (ti_has_flags t); [left; reflexivity|]. right.
    destruct (fi_def_flags f); [left; reflexivity|]. right.
    cbn [orb] in Hf. apply andb_true_iff in Hf. destruct Hf as [Hf1 Hf2].
    split; [exact Hf1 | split; [reflexivity|]].
    apply Nat.leb_le in Hf2. rewrite combine_length. lia.
Qed.

(* combine-segs: multiplexing *)
Definition samples_of (tf : traf_out) : list fsample := concat (map snd (tf_truns tf)).

Definition traf_ok (tf : traf_out) : Prop :=
  Forall (fun tr => snd tr <> []) (tf_truns tf) /\
  match samples_of tf with [] => True | s :: _ => tf_tfdt tf = fs_dts s end.

Lemma samples_of_nonempty tf p l : traf_ok tf -> tf_truns tf = p :: l -> samples_of tf <> [].
Proof.
  intros [H _] E. unfold samples_of. rewrite E in *. inversion H; subst. cbn [map concat].
  destruct (snd p); [congruence | discriminate].
Qed.

Lemma add_to_traf_spec tf n s :
  traf_ok tf ->
  tf_id (fst (add_to_traf tf n s)) = tf_id tf /\
  samples_of (fst (add_to_traf tf n s)) = samples_of tf ++ [s] /\
  traf_ok (fst (add_to_traf tf n s)).
Proof.
  intros Hok. unfold add_to_traf. destruct (tf_truns tf) as [|p l] eqn:Et.
  - cbn [rev app]. replace (n + 1 - 1) with n by lia. rewrite N.eqb_refl. cbn [fst tf_id].
    unfold samples_of at 1 2. cbn [tf_truns rev app map concat snd]. rewrite Et. cbn [map concat app].
    split; [reflexivity | split; [reflexivity|]].
    split; cbn [tf_truns tf_tfdt]; [constructor; [discriminate | constructor] | unfold samples_of; reflexivity].
  - assert (Hne : samples_of tf <> []) by (eapply samples_of_nonempty; eassumption).
    assert (Htf : match p :: l with [(_, [])] => fs_dts s | _ => tf_tfdt tf end = tf_tfdt tf).
    { destruct p as [w0 l0]. destruct l0; [|destruct l; reflexivity].
      destruct Hok as [Hf _]. rewrite Et in Hf. inversion Hf; subst. cbn [snd] in *. congruence. }
    rewrite Htf. clear Htf.
    destruct (rev (p :: l)) as [|[w lw] before] eqn:Er.
    { apply (f_equal (@length _)) in Er. rewrite rev_length in Er. discriminate. }
    assert (Epl : p :: l = rev before ++ [(w, lw)]).
    { rewrite <- (rev_involutive (p :: l)), Er. reflexivity. }
    assert (Hs : samples_of tf = concat (map snd (rev before)) ++ lw).
    { unfold samples_of. rewrite Et, Epl, map_app, concat_app. cbn [map concat snd]. rewrite app_nil_r. reflexivity. }
    destruct Hok as [Hf Hd]. rewrite Et, Epl in Hf. apply Forall_app in Hf. destruct Hf as [Hf1 Hf2].
    destruct (w =? n - 1); cbn [fst tf_id].
    + split; [reflexivity|].
      assert (Hs' : samples_of (mkTraf (tf_id tf) (tf_tfdt tf) (rev ((w, lw ++ [s]) :: before))) = samples_of tf ++ [s]).
      { unfold samples_of at 1. cbn [tf_truns rev]. rewrite map_app, concat_app. cbn [map concat snd].
        rewrite app_nil_r, Hs, <- app_assoc. reflexivity. }
      split; [exact Hs'|]. split.
      * cbn [tf_truns rev]. apply Forall_app. split; [exact Hf1|]. constructor; [|constructor].
        cbn [snd]. destruct lw; discriminate.
      * rewrite Hs'. cbn [tf_tfdt]. destruct (samples_of tf); [congruence | exact Hd].
    + split; [reflexivity|].
      assert (Hs' : samples_of (mkTraf (tf_id tf) (tf_tfdt tf) ((p :: l) ++ [(n, [s])])) = samples_of tf ++ [s]).
      { unfold samples_of at 1. cbn [tf_truns]. rewrite map_app, concat_app. cbn [map concat snd].
        rewrite app_nil_r. unfold samples_of. rewrite Et. reflexivity. }
      split; [exact Hs'|]. split.
      * cbn [tf_truns]. rewrite Epl. apply Forall_app. split; [apply Forall_app; split; assumption|].
        constructor; [discriminate | constructor].
      * rewrite Hs'. cbn [tf_tfdt]. destruct (samples_of tf); [congruence | exact Hd].
Qed.

Fixpoint find_traf (tfs : list traf_out) (id : N) : option traf_out :=
  match tfs with
  | [] => None
  | tf :: r => if tf_id tf =? id then Some tf else find_traf r id
  end.
Definition track_samples (tfs : list traf_out) (id : N) : option (list fsample) :=
  option_map samples_of (find_traf tfs id).

Lemma add_in_trafs_spec s : forall tfs id n,
  Forall traf_ok tfs -> In id (map tf_id tfs) ->
  exists tfs' n', add_in_trafs tfs id n s = Some (tfs', n') /\
    Forall traf_ok tfs' /\ map tf_id tfs' = map tf_id tfs /\
    forall id', track_samples tfs' id' =
                if id' =? id then option_map (fun l => l ++ [s]) (track_samples tfs id')
                else track_samples tfs id'.
Proof.
  induction tfs as [|tf r IH]; intros id n Hok Hin; [contradiction|].
  inversion Hok as [|? ? Hok1 Hok2]; subst. cbn [add_in_trafs].
  destruct (tf_id tf =? id) eqn:Eid.
  - destruct (add_to_traf_spec tf n s Hok1) as (Hi & Hs & Ht).
    destruct (add_to_traf tf n s) as [tf' n'] eqn:Ea. cbn [fst] in *.
    exists (tf' :: r), n'. split; [reflexivity|]. split; [constructor; assumption|].
    split; [cbn [map]; rewrite Hi; reflexivity|].
    intros id'. unfold track_samples. cbn [find_traf]. rewrite Hi.
    apply N.eqb_eq in Eid. subst id.
    destruct (tf_id tf =? id') eqn:E'.
    + apply N.eqb_eq in E'. subst id'. rewrite N.eqb_refl. cbn [option_map]. rewrite Hs. reflexivity.
    + assert (E2 : (id' =? tf_id tf) = false) by lia. rewrite E2. reflexivity.
  - cbn [map] in Hin. destruct Hin as [Hin | Hin]; [lia|].
    destruct (IH id n Hok2 Hin) as (r' & n' & E & Hok' & Hids & Hrd). rewrite E.
    exists (tf :: r'), n'. split; [reflexivity|]. split; [constructor; assumption|].
    split; [cbn [map]; rewrite Hids; reflexivity|].
    intros id'. unfold track_samples in *. cbn [find_traf].
    destruct (tf_id tf =? id') eqn:E'.
    + assert (E2 : (id' =? id) = false) by lia. rewrite E2. reflexivity.
    + apply Hrd.
Qed.

Definition fo_ok (fo : frag_out) (ids : list N) : Prop :=
  Forall traf_ok (fo_trafs fo) /\ map tf_id (fo_trafs fo) = ids.

Lemma add_all_spec ids id : forall ss fo,
  fo_ok fo ids -> In id ids ->
  fo_ok (add_all fo id ss) ids /\
  forall id', track_samples (fo_trafs (add_all fo id ss)) id' =
              if id' =? id then option_map (fun l => l ++ ss) (track_samples (fo_trafs fo) id')
              else track_samples (fo_trafs fo) id'.
Proof.
  unfold add_all. induction ss as [|s t IH]; intros fo [Hok Hids] Hin; cbn [fold_left].
  - split; [split; assumption|]. intros id'. destruct (id' =? id); [|reflexivity].
    destruct (track_samples (fo_trafs fo) id'); cbn [option_map]; [rewrite app_nil_r|]; reflexivity.
  - assert (Hin' : In id (map tf_id (fo_trafs fo))) by (rewrite Hids; exact Hin).
    destruct (add_in_trafs_spec s (fo_trafs fo) id (fo_next fo) Hok Hin') as (tfs' & n' & E & Hok' & Hids' & Hrd).
    unfold add_sample_to_track. rewrite E.
    destruct (IH (mkFragOut tfs' n')) as [Hfo Hrd2]; [split; cbn [fo_trafs]; [exact Hok' | congruence] | exact Hin |].
    split; [exact Hfo|]. intros id'. rewrite Hrd2. cbn [fo_trafs]. rewrite Hrd.
    destruct (id' =? id); [|reflexivity].
    destruct (track_samples (fo_trafs fo) id'); cbn [option_map]; [rewrite <- app_assoc|]; reflexivity.
Qed.

(* what was added for track T in a list of (track, samples) pairs *)
Lemma pick_absent {A} T : forall g : list (N * list A), ~ In T (map fst g) ->
  flat_map (fun p => if fst p =? T then snd p else []) g = [].
Proof.
  induction g as [|[T2 l2] g IH]; intros Hni; [reflexivity|]. cbn [flat_map fst snd map In] in *.
  destruct (T2 =? T) eqn:E; [apply N.eqb_eq in E; tauto|]. apply IH. tauto.
Qed.

Lemma pick_unique {A} T (l : list A) : forall g, NoDup (map fst g) -> In (T, l) g ->
  flat_map (fun p => if fst p =? T then snd p else []) g = l.
Proof.
  induction g as [|[T' l'] g IH]; intros Hnd Hin; [contradiction|]. cbn [flat_map fst snd map] in *.
  inversion Hnd as [|? ? Hni Hnd']; subst. destruct (T' =? T) eqn:E.
  - apply N.eqb_eq in E. subst T'. destruct Hin as [Hin|Hin]; [|elim Hni; exact (in_map fst _ _ Hin)].
    injection Hin as ->. rewrite (pick_absent T g Hni). apply app_nil_r.
  - destruct Hin as [Hin|Hin]; [injection Hin as -> _; rewrite N.eqb_refl in E; discriminate|]. apply IH; assumption.
Qed.

Lemma combine_fold_spec ids : forall pairs fo,
  fo_ok fo ids -> (forall p, In p pairs -> In (fst p) ids) ->
  let fo' := fold_left (fun st p => add_all st (fst p) (snd p)) pairs fo in
  fo_ok fo' ids /\
  forall id, track_samples (fo_trafs fo') id =
             option_map (fun l => l ++ flat_map (fun p => if fst p =? id then snd p else []) pairs)
                        (track_samples (fo_trafs fo) id).
Proof.
  induction pairs as [|[i0 s0] r IH]; intros fo Hfo Hsub; cbn [fold_left flat_map fst snd].
  - split; [exact Hfo|]. intros id. destruct (track_samples (fo_trafs fo) id); cbn [option_map]; [rewrite app_nil_r|]; reflexivity.
  - destruct (add_all_spec ids i0 s0 fo Hfo (Hsub (i0, s0) (or_introl eq_refl))) as [Hfo1 Hrd1].
    destruct (IH (add_all fo i0 s0) Hfo1 (fun p Hp => Hsub p (or_intror Hp))) as [Hf Hr].
    split; [exact Hf|]. intros id. rewrite Hr, Hrd1, (N.eqb_sym id i0).
    destruct (i0 =? id); [|reflexivity].
    destruct (track_samples (fo_trafs fo) id); cbn [option_map]; [rewrite app_assoc|]; reflexivity.
Qed.

Lemma create_multi_ok ids : fo_ok (create_multi ids) ids /\
  forall id, In id ids -> track_samples (fo_trafs (create_multi ids)) id = Some [].
Proof.
  unfold create_multi, fo_ok. cbn [fo_trafs]. split; [split|].
  - apply Forall_forall. intros tf Hin. apply in_map_iff in Hin. destruct Hin as (i & <- & _).
    split; [constructor | exact I].
  - rewrite map_map. cbn [tf_id]. apply map_id.
  - intros id Hin. unfold track_samples. induction ids as [|i r IH]; [contradiction|].
    cbn [map find_traf tf_id]. destruct (i =? id) eqn:E; [reflexivity|].
    destruct Hin as [-> | Hin]; [lia | apply IH; exact Hin].
Qed.

Lemma retime_contiguous : forall ss base, contiguous base ss = true -> retime base ss = ss.
Proof.
  induction ss as [|s t IH]; intros base H; cbn [retime contiguous] in *; [reflexivity|].
  apply andb_true_iff in H. destruct H as [H1 H2]. apply N.eqb_eq in H1. subst base.
  rewrite IH by exact H2. destruct s; reflexivity.
Qed.

Lemma read_track_find tfs id :
  read_track tfs id = option_map (fun tf => retime (tf_tfdt tf) (samples_of tf)) (find_traf tfs id).
Proof.
  induction tfs as [|tf r IH]; cbn [read_track find_traf]; [reflexivity|].
  destruct (tf_id tf =? id); [reflexivity | exact IH].
Qed.

Lemma find_traf_in tfs id tf : find_traf tfs id = Some tf -> In tf tfs.
Proof.
  induction tfs as [|t r IH]; cbn [find_traf]; [discriminate|].
  destruct (tf_id t =? id); intros H; [inversion H; subst; left; reflexivity | right; auto].
Qed.

Lemma NoDup_combine_fst {A B} : forall (ids : list A) (xs : list B), NoDup ids -> NoDup (map fst (combine ids xs)).
Proof.
  induction ids as [|i r IH]; intros xs Hnd; [constructor|].
  destruct xs as [|x xs]; [constructor|]. cbn [combine map fst].
  inversion Hnd; subst. constructor; [|apply IH; assumption].
  intros Hc. apply in_map_iff in Hc. destruct Hc as ([a b] & Ha & Hb). cbn [fst] in Ha. subst a.
  apply in_combine_l in Hb. contradiction.
Qed.

Lemma mux_conserves ids inputs id ss :
  NoDup ids -> In (id, ss) (combine ids inputs) -> contiguous_list ss = true ->
  read_track (fo_trafs (combine_tracks ids inputs)) id = Some ss.
Proof.
  intros Hnd Hin Hc. unfold combine_tracks.
  destruct (create_multi_ok ids) as [Hfo0 Hrd0].
  destruct (combine_fold_spec ids (combine ids inputs) (create_multi ids) Hfo0) as [[Hok _] Hrd].
  { intros [a b] Hp. exact (in_combine_l _ _ _ _ Hp). }
  specialize (Hrd id). rewrite (Hrd0 id (in_combine_l _ _ _ _ Hin)) in Hrd. cbn [option_map app] in Hrd.
  rewrite (pick_unique id ss _ (NoDup_combine_fst ids inputs Hnd) Hin) in Hrd.
  rewrite read_track_find. unfold track_samples in Hrd.
  destruct (find_traf _ id) as [tf|] eqn:Ef; [|discriminate]. cbn [option_map] in *.
  inversion Hrd as [Hs]. rewrite Hs. f_equal.
  apply find_traf_in in Ef. rewrite Forall_forall in Hok. destruct (Hok tf Ef) as [_ Hd].
  rewrite Hs in Hd. unfold contiguous_list in Hc.
  destruct ss as [|s0 t0]; [reflexivity|]. rewrite Hd. apply retime_contiguous. exact Hc.
Qed.

Fixpoint total_dur (ss : list fsample) : N :=
  match ss with [] => 0 | s :: t => fs_dur s + total_dur t end.

Lemma contiguous_app a : forall base b,
  contiguous base (a ++ b) = true -> contiguous base a = true /\ contiguous (base + total_dur a) b = true.
Proof.
  induction a as [|s t IH]; intros base b H; cbn [app contiguous total_dur] in *.
  - split; [reflexivity|]. rewrite N.add_0_r. exact H.
  - apply andb_true_iff in H. destruct H as [H1 H2]. apply IH in H2. destruct H2 as [H2 H3].
    rewrite H1, H2. split; [reflexivity|]. rewrite N.add_assoc. exact H3.
Qed.

Lemma retime_pieces : forall segs base,
  contiguous base (concat segs) = true -> map retime_seg segs = segs.
Proof.
  induction segs as [|seg r IH]; intros base H; cbn [map concat] in *; [reflexivity|].
  apply contiguous_app in H. destruct H as [H1 H2]. f_equal; [|eapply IH; exact H2].
  destruct seg as [|s t]; [reflexivity|]. cbn [retime_seg].
  pose proof H1 as H1'. cbn [contiguous] in H1'. apply andb_true_iff in H1'. destruct H1' as [E _].
  apply N.eqb_eq in E. rewrite E. apply retime_contiguous. exact H1.
Qed.

Lemma contiguous_list_base ss : contiguous_list ss = true -> exists base, contiguous base ss = true.
Proof. destruct ss as [|s t]; intros H; [exists 0; reflexivity | exists (fs_dts s); exact H]. Qed.

Lemma in_combine_map {A B C} (g : B -> C) : forall (l1 : list A) (l2 : list B) a b,
  In (a, b) (combine l1 l2) -> In (a, g b) (combine l1 (map g l2)).
Proof.
  induction l1 as [|x r IH]; intros l2 a b H; [contradiction|].
  destruct l2 as [|y l2']; [contradiction|]. cbn [combine map] in *.
  destruct H as [H | H]; [inversion H; subst; left; reflexivity | right; apply IH; exact H].
Qed.

