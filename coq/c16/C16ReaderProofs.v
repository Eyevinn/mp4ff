(* C16ReaderProofs.v — totality of the EBSP bit reader (model: coq/c13/C13Model.v, imported read-only):
   the fuel of the byte-fill loop and of the Exp-Golomb leading-zero loop is never exhausted, every
   read consumes the bits it returns (so loops that read at least one bit per iteration are bounded
   by the input length), and after the first error every read is a constant-time 0. No axioms. *)
From V.lib Require Import Base.
From V.c13 Require Import C13Model.

(* well-formed reader state: position inside the data, fewer than 8 pending bits *)
Definition rwf (s : rstate) : Prop := rpos s <= lenN (rdata s) /\ rn s < 8.

(* unread bits: pending ones plus the bytes not yet consumed *)
Definition bits_left (s : rstate) : N := 8 * (lenN (rdata s) - rpos s) + rn s.

Lemma byte_at_some data i b : byte_at data i = Some b -> i < lenN data.
Proof.
  unfold byte_at, lenN. intros H.
  assert (Hn : nth_error data (N.to_nat i) <> None) by congruence.
  apply nth_error_Some in Hn. lia.
Qed.

Lemma rwf_init data : rwf (rinit data).
Proof. unfold rwf, rinit. cbn [rpos rn rdata]. lia. Qed.

(* ---------- the fill loop `for r.n < n { read a byte }` ---------- *)
(* A failed byte fetch leaves rn as it was when the loop test rn < n last held. *)
Lemma fill_inv esc : forall fuel s n,
    rpos s <= lenN (rdata s) -> rerr s = false -> n < rn s + 8 * N.of_nat fuel ->
    let s' := fill esc fuel s n in
    rdata s' = rdata s /\ rpos s' <= lenN (rdata s) /\ bits_left s' <= bits_left s /\
    (if rerr s' then rn s' < n else n <= rn s' /\ (rn s' < n + 8 \/ rn s' = rn s)).
Proof.
  induction fuel as [|f IH]; intros s n Hp He Hf; cbn zeta; cbn [fill].
  { rewrite He. repeat split; lia. }
  destruct (rn s <? n) eqn:Hc; [|rewrite He; repeat split; lia].
  assert (Hnext : forall b pos zc, rpos s < pos <= lenN (rdata s) ->
            let s' := fill esc f (mkR (rn s + 8) b pos zc false (rdata s)) n in
            rdata s' = rdata s /\ rpos s' <= lenN (rdata s) /\ bits_left s' <= bits_left s /\
            (if rerr s' then rn s' < n else n <= rn s' /\ (rn s' < n + 8 \/ rn s' = rn s))).
  { intros b pos zc Hpos s'.
    destruct (IH (mkR (rn s + 8) b pos zc false (rdata s)) n) as (Hd & Hp' & Hb & Hr);
      cbn [rpos rdata rerr rn]; [lia|reflexivity|lia|].
    fold s' in Hd, Hp', Hb, Hr. unfold bits_left in *. cbn [rpos rdata rn] in Hd, Hp', Hb, Hr. rewrite Hd in Hb |- *.
    repeat split; [exact Hp'|lia|]. destruct (rerr s'); lia. }
  destruct (byte_at (rdata s) (rpos s)) as [b|] eqn:Hb; [apply byte_at_some in Hb|].
  2:{ unfold bits_left. cbn [rdata rpos rerr rn]. repeat split; lia. }
  destruct (esc && (rzc s =? 2) && (b =? 3))%bool; [|apply Hnext; lia].
  destruct (byte_at (rdata s) (rpos s + 1)) as [b'|] eqn:Hb'; [apply byte_at_some in Hb'; apply Hnext; lia|].
  unfold bits_left. cbn [rdata rpos rerr rn]. repeat split; lia.
Qed.

(* ---------- Read(n) ---------- *)
Lemma read_fuel n : n < 8 * N.of_nat (S (N.to_nat (n / 8) + 1)).
Proof. pose proof (N.mod_lt n 8). pose proof (N.div_mod n 8). lia. Qed.

(* every read on a well-formed state either sets the sticky error or consumes exactly the n bits
   it returns (plus possibly escape bytes) and leaves a well-formed state *)
Lemma read_gen_inv esc s n :
  rwf s -> rerr s = false ->
  let '(v, s1) := read_gen esc s n in
  rdata s1 = rdata s /\
  (rerr s1 = true \/ (rerr s1 = false /\ rwf s1 /\ bits_left s1 + n <= bits_left s)).
Proof.
  intros [Hp Hn] He. unfold read_gen. rewrite He.
  destruct (fill_inv esc (S (N.to_nat (n / 8) + 1)) s n Hp He) as (Hd & Hp' & Hb & Hr).
  { pose proof (read_fuel n). lia. }
  destruct (rerr (fill esc _ s n)) eqn:Hr1; [auto|].
  cbn [rdata rerr]. split; [exact Hd|]. right.
  split; [reflexivity|]. unfold rwf, bits_left in *. cbn [rpos rdata rn]. rewrite Hd in *. lia.
Qed.

(* a failed read leaves a state that is well-formed again once the error flag is cleared, with
   fewer than n pending bits and no more unread bits than before *)
Lemma read_gen_failed esc s n :
  rwf s -> rerr s = false -> rerr (snd (read_gen esc s n)) = true ->
  let s1 := snd (read_gen esc s n) in
  rdata s1 = rdata s /\ rpos s1 <= lenN (rdata s) /\ rn s1 < n /\ bits_left s1 <= bits_left s.
Proof.
  intros [Hp Hn] He. unfold read_gen. rewrite He.
  destruct (fill_inv esc (S (N.to_nat (n / 8) + 1)) s n Hp He) as (Hd & Hp' & Hb & Hr).
  { pose proof (read_fuel n). lia. }
  destruct (rerr (fill esc _ s n)) eqn:Hr1; cbn [snd rerr]; [auto|discriminate].
Qed.

(* Read(n) with n bits pending fetches no byte *)
Lemma fill_enough esc fuel s n : n <= rn s -> fill esc fuel s n = s.
Proof. intros H. destruct fuel; cbn [fill]; [reflexivity|]. replace (rn s <? n) with false by lia. reflexivity. Qed.

(* a read that ends with the error set returns 0 *)
Lemma read_err_zero s n : rerr (snd (read s n)) = true -> fst (read s n) = 0.
Proof.
  unfold read, read_gen. destruct (rerr s) eqn:He; [reflexivity|].
  destruct (rerr (fill true (S (N.to_nat (n / 8) + 1)) s n)) eqn:Hf; [reflexivity|].
  cbn [snd rerr]. discriminate.
Qed.

(* the sticky error: O(1), value 0, state unchanged *)
Lemma read_gen_after_error esc s n : rerr s = true -> read_gen esc s n = (0, s).
Proof. intros H. unfold read_gen. rewrite H. reflexivity. Qed.

Lemma read_ue_after_error s : rerr s = true -> read_ue s = (0, s).
Proof. intros H. unfold read_ue. rewrite H. reflexivity. Qed.

(* ---------- ReadExpGolomb: the leading-zero loop terminates before its fuel ---------- *)
Lemma lz_loop_total : forall fuel s lz,
    rwf s -> rerr s = false -> bits_left s < N.of_nat fuel ->
    exists lz' s1, lz_loop fuel s lz = Some (lz', s1) /\ rdata s1 = rdata s /\
                   lz <= lz' /\ lz' - lz <= bits_left s /\
                   (rerr s1 = true \/ (rerr s1 = false /\ rwf s1 /\ bits_left s1 + (lz' - lz) < bits_left s)).
Proof.
  induction fuel as [|f IH]; intros s lz Hw He Hf; [lia|].
  cbn [lz_loop]. pose proof (read_gen_inv true s 1 Hw He) as H.
  unfold read. destruct (read_gen true s 1) as [b s1]. destruct H as (Hd & Hr).
  destruct Hr as [Hr|(Hr1 & Hr2 & Hr3)].
  - rewrite Hr. exists lz, s1. split; [reflexivity|]. split; [exact Hd|]. split; [lia|]. split; [lia|]. left. exact Hr.
  - rewrite Hr1. destruct (b =? 1).
    + exists lz, s1. split; [reflexivity|]. split; [exact Hd|]. split; [lia|]. split; [lia|].
      right. split; [exact Hr1|]. split; [exact Hr2|]. lia.
    + destruct (IH s1 (lz + 1) Hr2 Hr1) as (lz' & s2 & Hl & Hd2 & Hle & Hb & Hr'); [lia|].
      exists lz', s2. split; [exact Hl|]. split; [congruence|]. split; [lia|]. split; [lia|].
      destruct Hr' as [Hr'|(Ha & Hb' & Hc)]; [left; exact Hr'|right].
      split; [exact Ha|]. split; [exact Hb'|]. lia.
Qed.

Lemma read_ue_fuel s : rwf s -> bits_left s < N.of_nat (S (8 * length (rdata s) + 8)).
Proof. intros [Hp Hn]. unfold bits_left, lenN in *. lia. Qed.

(* ReadExpGolomb on any well-formed state: the `None` (out of fuel) branch is never taken, the
   data is unchanged, and the result state is in error or well-formed with strictly fewer bits left *)
Lemma read_ue_total s :
  rwf s -> rerr s = false ->
  exists lz s1, lz_loop (S (8 * length (rdata s) + 8)) s 0 = Some (lz, s1) /\ lz <= bits_left s /\
  let '(v, s2) := read_ue s in
  rdata s2 = rdata s /\ (rerr s2 = true \/ (rerr s2 = false /\ rwf s2 /\ bits_left s2 < bits_left s)).
Proof.
  intros Hw He.
  destruct (lz_loop_total _ s 0 Hw He (read_ue_fuel s Hw)) as (lz & s1 & Hl & Hd & _ & Hb & Hr).
  exists lz, s1. split; [exact Hl|]. split; [lia|].
  unfold read_ue. rewrite He, Hl.
  destruct Hr as [Hr|(Hr1 & Hr2 & Hr3)].
  - rewrite Hr. split; [exact Hd|]. left. exact Hr.
  - rewrite Hr1. pose proof (read_gen_inv true s1 lz Hr2 Hr1) as H. unfold read.
    destruct (read_gen true s1 lz) as [e s2]. destruct H as (Hd2 & Hr').
    destruct Hr' as [Hr'|(Ha & Hb' & Hc)].
    + rewrite Hr'. split; [congruence|]. left. exact Hr'.
    + rewrite Ha. split; [congruence|]. right. split; [exact Ha|]. split; [exact Hb'|]. lia.
Qed.
