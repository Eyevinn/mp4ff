(* C16AuxStreamProofs.v — the Annex B byte-stream helpers that share the bs_loop skeleton (C14 models, imported
   read-only) are total for EVERY list, no hypothesis:
     avc.ExtractNalusFromByteStream, avc.GetFirstAVCVideoNALUFromByteStream,
     {avc,hevc}.ExtractNalusOfTypeFromByteStream, {avc,hevc}.GetParameterSetsFromByteStream.
   Method: C14 bs_loop_events turns the loop into a fold over the start-code positions (for any body);
   the positions are at least 3 apart (filter_sep3); a generic invariant lemma (events_total) then needs one
   step fact per body: given the current unit start `cur` <= the start code position p and p + 3 < |d|, every
   index and slice expression of the body is in range.  The trailing-zero trimming loop is bounded per start
   code by the distance to the previous one (trim_end_total).
   No axioms. *)
From V.lib Require Import Base.
From V.c14 Require Import C14Spec C14Model C14WordProofs C14ScanProofs C14ConvProofs C14StreamProofs.
From V.c16 Require Import C16ResProofs C16AuxScanProofs.
Local Open Scope Z_scope.

(* the start-code positions the byte-stream loop visits: increasing, at least 3 apart *)
Fixpoint sep3 (L lo : Z) (ps : list Z) : Prop :=
  match ps with
  | [] => True
  | p :: t => lo <= p /\ p + 3 < L /\ sep3 L (p + 3) t
  end.

Lemma filter_sep3 d : forall n s lo,
  (forall q, s <= q < lo -> is_sc d q = false) -> sep3 (Zlen d) lo (filter (is_sc d) (zrange s n)).
Proof.
  induction n as [|n IH]; intros s lo H; cbn [zrange filter]; [exact I|].
  destruct (is_sc d s) eqn:Hs.
  - cbn [sep3]. split.
    { destruct (Z.le_gt_cases lo s) as [Hc|Hc]; [exact Hc|]. rewrite H in Hs by lia. discriminate. }
    split; [apply is_sc_inv in Hs; lia|].
    apply IH. intros q Hq. apply (sc_sep d s q Hs). lia.
  - apply IH. intros q Hq. apply H. lia.
Qed.

Section Events.
Context {St R : Type} (body : Z -> St -> res (St + R)) (L : Z) (cur_of : St -> Z)
        (IS : St -> Prop) (IR : R -> Prop).

(* the loop goes on in a state satisfying P, or is left with a result satisfying IR *)
Definition went (P : St -> Prop) (r : St + R) : Prop :=
  match r with inl st => P st | inr x => IR x end.

Hypothesis step : forall p st, cur_of st <= p -> 0 <= p -> p + 3 < L -> IS st ->
  val false (went (fun st' => cur_of st' = p + 3 /\ IS st')) (body p st).

Lemma events_total : forall ps lo st,
  sep3 L lo ps -> 0 <= lo -> cur_of st <= lo -> cur_of st < L -> IS st ->
  val false (went (fun st' => cur_of st' < L /\ IS st')) (bs_events body ps st).
Proof.
  induction ps as [|p t IH]; intros lo st Hs Hlo Hc HL Hi; cbn [bs_events]; [split; assumption|].
  destruct Hs as (S1 & S2 & S3).
  apply (val_bind (step p st ltac:(lia) ltac:(lia) S2 Hi)).
  intros [st'|x]; cbn [went]; [|exact (fun H => H)].
  intros (Hc' & Hi'). apply (IH (p + 3)); try assumption; lia.
Qed.
End Events.

(* the loop of a helper on any list *)
Lemma bs_loop_total {St R} (body : Z -> St -> res (St + R)) (d : list N) (cur_of : St -> Z)
      (IS : St -> Prop) (IR : R -> Prop) (st : St) :
  (forall p st, cur_of st <= p -> 0 <= p -> p + 3 < Zlen d -> IS st ->
     val false (went IR (fun st' => cur_of st' = p + 3 /\ IS st')) (body p st)) ->
  cur_of st = -1 -> IS st ->
  val false (went IR (fun st' => cur_of st' < Zlen d /\ IS st')) (bs_loop body (S (length d)) d (Zlen d) 0 st).
Proof.
  intros Hstep Hc Hi. rewrite bs_loop_events by (unfold Zlen; lia).
  apply (events_total body (Zlen d) cur_of IS IR Hstep _ 0); try assumption; try lia.
  - apply filter_sep3. intros q Hq. lia.
  - pose proof (Zlen_nonneg d). lia.
Qed.

(* the trailing-zero trimming loop: total, at most j + 1 - cur iterations *)
Lemma trim_loop_total d cur : forall fuel j e, e = j + 1 ->
  0 <= cur -> cur - 1 <= j -> j < Zlen d -> (Z.to_nat (j + 1 - cur) < fuel)%nat ->
  val false (fun e' => cur <= e' <= j + 1) (trim_loop fuel d cur j e).
Proof.
  induction fuel as [|f IH]; intros j e He H0 H1 H2 Hf; [lia|].
  cbn [trim_loop]. rewrite Z.gtb_ltb. destruct (Z.ltb_spec cur j) as [Hlt|Hge]; [|cbn [val]; lia].
  rewrite getb_ok by lia. cbn [rbind]. destruct (is0 (zget d j)); [|cbn [val]; lia].
  apply (val_weaken (IH (j - 1) j ltac:(lia) H0 ltac:(lia) ltac:(lia) ltac:(lia))). intros e'. lia.
Qed.

(* what the bodies do first with the unit [cur, p) before the start code at p, if there is one (cur > 0):
   trim it, then go on with its end `e` *)
Lemma prev_unit_total {A} d cur p (k : Z -> res A) (Q : A -> Prop) (none : A) :
  cur <= p -> p <= Zlen d -> Q none ->
  (forall e, 0 < cur -> cur <= e <= p -> val false Q (k e)) ->
  val false Q (if cur >? 0 then do e <- trim_end d cur p; k e else Ok none).
Proof.
  intros H1 H2 Hn Hk. rewrite Z.gtb_ltb. destruct (Z.ltb_spec 0 cur) as [Hpos|Hneg]; [|exact Hn].
  apply (val_bind (Q := fun e => cur <= e <= p)); [|intros e; apply Hk; exact Hpos].
  apply (val_weaken (trim_loop_total d cur (S (length d)) (p - 1) p ltac:(lia) ltac:(lia) ltac:(lia)
                                ltac:(lia) ltac:(unfold Zlen in *; lia))).
  intros e. lia.
Qed.

(* the invariant of the helpers that collect units: at most one unit per byte before `cur` *)
Definition le_cur {A} (size : A -> nat) (st : Z * A) : Prop := (size (snd st) <= Z.to_nat (fst st))%nat.

Lemma Zlen_slice_le (d : list N) a b : (length (firstn (Z.to_nat (b - a)) (skipn (Z.to_nat a) d)) <= length d)%nat.
Proof. rewrite firstn_length, skipn_length. lia. Qed.

(* ------------------------------------------------------------------ ExtractNalusFromByteStream *)
Lemma enb_step d p (st : Z * list (list N)) :
  fst st <= p -> 0 <= p -> p + 3 < Zlen d -> le_cur (@length _) st ->
  val false (went (fun _ : unit => True) (fun st' => fst st' = p + 3 /\ le_cur (@length _) st')) (enb_body d p st).
Proof.
  destruct st as [cur acc]. unfold le_cur. cbn [fst snd]. intros H1 H2 H3 Hi. unfold enb_body.
  apply (val_bind (Q := fun acc1 => (length acc1 <= Z.to_nat p + 1)%nat)).
  - apply prev_unit_total; try lia. intros e H0 He. rewrite slice_ok by lia. cbn [rbind val length]. lia.
  - intros acc1 Hl. cbn [val went fst snd]. lia.
Qed.

Lemma extract_nalus_from_byte_stream_total d :
  val false (fun nalus => (lenN nalus <= lenN d)%N) (extract_nalus_from_byte_stream d).
Proof.
  unfold extract_nalus_from_byte_stream.
  apply (val_bind (bs_loop_total (enb_body d) d fst _ _ (-1, []) (enb_step d) eq_refl (Nat.le_refl 0))).
  intros [[cur acc]|[]]; cbn [went enb_finish]; [|intros _; apply N.le_0_l].
  unfold le_cur. cbn [fst snd]. intros (Hc & Hi).
  destruct (Z.ltb_spec cur 0); [apply N.le_0_l|].
  rewrite slice_ok by lia. cbn [rbind val]. unfold lenN, Zlen in *. rewrite rev_length. cbn [length]. lia.
Qed.

(* ------------------------------------------------------------------ GetFirstAVCVideoNALUFromByteStream *)
Lemma gfv_step d p cur : cur <= p -> 0 <= p -> p + 3 < Zlen d -> True ->
  val false (went (fun x => 0 < fst x /\ fst x <= snd x /\ snd x <= Zlen d) (fun cur' => cur' = p + 3 /\ True))
      (gfv_body d p cur).
Proof.
  intros H1 H2 H3 _. unfold gfv_body.
  apply (val_bind (Q := fun r => match r with Some x => 0 < fst x /\ fst x <= snd x /\ snd x <= Zlen d | None => True end)).
  - apply prev_unit_total; [lia|lia|exact I|]. intros e H0 He. rewrite getb_ok by lia. cbn [rbind].
    destruct (avc_is_video _); cbn [val fst snd]; [lia|exact I].
  - intros [x|] Hx; cbn [val went]; auto.
Qed.

Lemma avc_get_first_video_nalu_total d :
  val false (fun nalu => (lenN nalu <= lenN d)%N) (avc_get_first_video_nalu d).
Proof.
  unfold avc_get_first_video_nalu.
  apply (val_bind (bs_loop_total (gfv_body d) d (fun c => c) (fun _ => True) _ (-1) (gfv_step d) eq_refl I)).
  assert (Hsl : forall a b, 0 <= a -> a <= b -> b <= Zlen d -> val false (fun nalu => (lenN nalu <= lenN d)%N) (slice d a b)).
  { intros a b Ha Hb Hl. rewrite slice_ok by lia. cbn [val]. unfold lenN. pose proof (Zlen_slice_le d a b). lia. }
  intros [cur|[a b]]; cbn [went gfv_finish fst snd].
  - intros (Hc & _). rewrite Z.gtb_ltb. destruct (Z.ltb_spec 0 cur); [|apply N.le_0_l].
    rewrite getb_ok by lia. cbn [rbind]. destruct (avc_is_video _); [apply Hsl; lia|apply N.le_0_l].
  - intros (Ha & Hb & Hl). destruct (Z.eqb_spec a 0); [lia|]. apply Hsl; lia.
Qed.

(* ------------------------------------------------------------------ ExtractNalusOfTypeFromByteStream *)
Lemma enot_step ty vlim want stop d p (st : Z * list (list N)) :
  fst st <= p -> 0 <= p -> p + 3 < Zlen d -> le_cur (@length _) st ->
  val false (went (fun x => (length x <= length d)%nat) (fun st' => fst st' = p + 3 /\ le_cur (@length _) st'))
      (enot_body ty vlim want stop d p st).
Proof.
  destruct st as [cur acc]. unfold le_cur. cbn [fst snd]. intros H1 H2 H3 Hi. unfold enot_body.
  apply (val_bind (Q := fun acc1 => (length acc1 <= Z.to_nat p + 1)%nat)).
  - apply prev_unit_total; try lia. intros e H0 He. rewrite getb_ok by lia. cbn [rbind].
    destruct (N.eqb _ want); [rewrite slice_ok by lia|]; cbn [rbind val length]; lia.
  - intros acc1 Hl. destruct (Z.ltb_spec (p + 3) (Zlen d)); [|lia]. rewrite getb_ok by lia. cbn [rbind].
    destruct (stop && _); cbn [val went fst snd]; unfold Zlen in *; lia.
Qed.

Lemma extract_nalus_of_type_total ty vlim want stop d :
  val false (fun nalus => (lenN nalus <= lenN d)%N) (extract_nalus_of_type ty vlim want stop d).
Proof.
  unfold extract_nalus_of_type.
  apply (val_bind (bs_loop_total (enot_body ty vlim want stop d) d fst _ _ (-1, [])
                               (enot_step ty vlim want stop d) eq_refl (Nat.le_refl 0))).
  intros [[cur acc]|x]; cbn [went enot_finish val]; [|unfold lenN; rewrite rev_length; lia].
  unfold le_cur. cbn [fst snd]. intros (Hc & Hi).
  destruct (Z.ltb_spec cur 0); [apply N.le_0_l|].
  rewrite getb_ok by lia. cbn [rbind].
  destruct (N.eqb _ want); [rewrite slice_ok by lia|]; cbn [rbind val]; unfold lenN, Zlen in *;
    rewrite rev_length; cbn [length]; lia.
Qed.

(* ------------------------------------------------------------------ GetParameterSetsFromByteStream *)
Definition psz (a : ps3) : nat := let '(v, s, p) := a in (length v + length s + length p)%nat.

Lemma psz_add c x a : psz (ps_add c x a) = S (psz a).
Proof.
  destruct a as [[v s] p]. unfold ps_add. destruct (N.eqb c 0); [|destruct (N.eqb c 1)]; cbn [psz length]; lia.
Qed.

Lemma psz_rev a : psz (ps_rev a) = psz a.
Proof. destruct a as [[v s] p]. cbn [ps_rev psz]. rewrite !rev_length. reflexivity. Qed.

Lemma gpsb_step ty cls vlim d p (st : Z * ps3) :
  fst st <= p -> 0 <= p -> p + 3 < Zlen d -> le_cur psz st ->
  val false (went (fun x => (psz x <= length d)%nat) (fun st' => fst st' = p + 3 /\ le_cur psz st'))
      (gpsb_body ty cls vlim d p st).
Proof.
  destruct st as [cur acc]. unfold le_cur. cbn [fst snd]. intros H1 H2 H3 Hi. unfold gpsb_body. cbv zeta.
  apply (val_bind (Q := fun acc1 => (psz acc1 <= Z.to_nat p + 1)%nat)).
  - apply prev_unit_total; try lia. intros e H0 He. rewrite getb_ok by lia. cbn [rbind].
    destruct (cls _ <=? 2)%N; [rewrite slice_ok by lia|]; cbn [rbind val]; rewrite ?psz_add; lia.
  - intros acc1 Hl. rewrite getb_ok by lia. cbn [rbind].
    destruct (ty _ <? vlim)%N; cbn [val went fst snd]; unfold Zlen in *; lia.
Qed.

Lemma get_parameter_sets_from_byte_stream_total ty cls vlim d :
  val false (fun ps => (psz ps <= length d)%nat) (get_parameter_sets_from_byte_stream ty cls vlim d).
Proof.
  unfold get_parameter_sets_from_byte_stream.
  apply (val_bind (bs_loop_total (gpsb_body ty cls vlim d) d fst _ _ (-1, ([], [], []))
                               (gpsb_step ty cls vlim d) eq_refl (Nat.le_refl 0))).
  intros [[cur acc]|x]; cbn [went gpsb_finish val]; [|rewrite psz_rev; exact (fun H => H)].
  unfold le_cur. cbn [fst snd]. intros (Hc & Hi).
  apply (val_bind (Q := fun acc1 => (psz acc1 <= length d)%nat)); [|intros acc1 Hl; cbn [val]; rewrite psz_rev; exact Hl].
  rewrite Z.gtb_ltb. destruct (Z.ltb_spec 0 cur); [|cbn [val]; lia].
  rewrite getb_ok by lia. cbn [rbind]. cbv zeta.
  destruct (cls _ <=? 2)%N; [rewrite slice_ok by lia|]; cbn [rbind val]; rewrite ?psz_add; unfold Zlen in *; lia.
Qed.

Lemma get_parameter_sets_from_byte_stream_total_N ty cls vlim d :
  exists v s p, get_parameter_sets_from_byte_stream ty cls vlim d = Ok (v, s, p) /\
                (lenN v + lenN s + lenN p <= lenN d)%N.
Proof.
  destruct (val_ok (get_parameter_sets_from_byte_stream_total ty cls vlim d)) as ([[v s] p] & H & Hl).
  exists v, s, p. split; [exact H|]. cbn [psz] in Hl. unfold lenN. lia.
Qed.
