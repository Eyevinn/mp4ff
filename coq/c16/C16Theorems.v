(* C16Theorems.v — the property theorems of C16 and nothing else.  Each is closed by
   `exact <lemma>` (the walkers': the lemma's `val` postcondition written out) and followed by Print Assumptions (audited by ./check on every run).

   Shape: for EVERY byte list `bs` (no bound on its length, no well-formedness hypothesis, elements
   need not even be < 256) the modelled function returns a value (or, where Go returns an error,
   `Err`): never `Panic`, never `OutOfFuel`; the number of loop iterations `t` is linear in
   |bs| and the number of appended elements is at most `t`. *)
From V.lib Require Import Base.
From V.c13 Require Import C13Model.
From V.c16 Require Import C16Model C16ResProofs C16WalkProofs C16ReaderProofs C16SeiProofs.

(* ------------------------------------------------------------------ avc *)
Theorem C16_avc_GetNalusFromSample_total : forall bs : list N,
  avc_get_nalus_from_sample bs = Err \/
  exists nalus t, avc_get_nalus_from_sample bs = Ok (nalus, t) /\ 4 * t <= lenN bs /\ lenN nalus <= t.
Proof. exact (fun bs => val_err2 (avc_get_nalus_total bs)). Qed.
Print Assumptions C16_avc_GetNalusFromSample_total.

Theorem C16_avc_FindNaluTypes_total : forall bs : list N,
  exists types t, avc_find_nalu_types bs = Ok (types, t) /\ 4 * t <= 1 * lenN bs /\ lenN types <= t.
Proof. exact (fun bs => val_ok2 (find_nalu_types_total avc_nalu_type bs)). Qed.
Print Assumptions C16_avc_FindNaluTypes_total.

Theorem C16_avc_FindNaluTypesUpToFirstVideoNALU_total : forall bs : list N,
  exists types t, avc_find_nalu_types_upto bs = Ok (types, t) /\ 4 * t <= 1 * lenN bs /\ lenN types <= t.
Proof. exact (fun bs => val_ok2 (find_nalu_types_upto_total avc_nalu_type avc_is_video bs)). Qed.
Print Assumptions C16_avc_FindNaluTypesUpToFirstVideoNALU_total.

Theorem C16_avc_ContainsNaluType_total : forall (bs : list N) (want : N),
  exists b t, avc_contains_nalu_type bs want = Ok (b, t) /\ 4 * t <= 1 * lenN bs /\ 0 <= t.
Proof. exact (fun bs want => val_ok2 (avc_contains_total bs want)). Qed.
Print Assumptions C16_avc_ContainsNaluType_total.

Theorem C16_avc_IsIDRSample_total : forall bs : list N,
  exists b t, avc_is_idr_sample bs = Ok (b, t) /\ 4 * t <= 1 * lenN bs /\ 0 <= t.
Proof. exact (fun bs => val_ok2 (avc_contains_total bs 5)). Qed.
Print Assumptions C16_avc_IsIDRSample_total.

Theorem C16_avc_HasParameterSets_total : forall bs : list N,
  exists b t, avc_has_parameter_sets bs = Ok (b, t) /\ 4 * t <= 2 * lenN bs /\ 0 <= t.
Proof. exact (fun bs => val_ok2 (avc_has_ps_total bs)). Qed.
Print Assumptions C16_avc_HasParameterSets_total.

Theorem C16_avc_GetParameterSets_total : forall bs : list N,
  exists ps t, avc_get_parameter_sets bs = Ok (ps, t) /\ 4 * t <= 1 * lenN bs /\
               lenN (fst ps) + lenN (snd ps) <= t.
Proof. exact (fun bs => val_ok2 (avc_get_ps_total bs)). Qed.
Print Assumptions C16_avc_GetParameterSets_total.

Theorem C16_avc_ConvertSampleToByteStream_total : forall bs : list N,
  exists out t, convert_sample_to_byte_stream bs = Ok (out, t) /\ 4 * t <= lenN bs /\ lenN out = lenN bs.
Proof. exact (fun bs => val_ok2 (convert_total bs)). Qed.
Print Assumptions C16_avc_ConvertSampleToByteStream_total.

(* ------------------------------------------------------------------ hevc *)
Theorem C16_hevc_FindNaluTypes_total : forall bs : list N,
  exists types t, hevc_find_nalu_types bs = Ok (types, t) /\ 4 * t <= 1 * lenN bs /\ lenN types <= t.
Proof. exact (fun bs => val_ok2 (find_nalu_types_total hevc_nalu_type bs)). Qed.
Print Assumptions C16_hevc_FindNaluTypes_total.

Theorem C16_hevc_FindNaluTypesUpToFirstVideoNalu_total : forall bs : list N,
  exists types t, hevc_find_nalu_types_upto bs = Ok (types, t) /\ 4 * t <= 1 * lenN bs /\ lenN types <= t.
Proof. exact (fun bs => val_ok2 (find_nalu_types_upto_total hevc_nalu_type hevc_is_video bs)). Qed.
Print Assumptions C16_hevc_FindNaluTypesUpToFirstVideoNalu_total.

Theorem C16_hevc_ContainsNaluType_total : forall (bs : list N) (want : N),
  exists b t, hevc_contains_nalu_type bs want = Ok (b, t) /\ 4 * t <= 1 * lenN bs /\ 0 <= t.
Proof. exact (fun bs want => val_ok2 (hevc_contains_total bs want)). Qed.
Print Assumptions C16_hevc_ContainsNaluType_total.

Theorem C16_hevc_IsRAPSample_total : forall bs : list N,
  exists b t, hevc_is_rap_sample bs = Ok (b, t) /\ 4 * t <= 2 * lenN bs /\ 0 <= t.
Proof. exact (fun bs => val_ok2 (hevc_is_rap_total bs)). Qed.
Print Assumptions C16_hevc_IsRAPSample_total.

Theorem C16_hevc_IsIDRSample_total : forall bs : list N,
  exists b t, hevc_is_idr_sample bs = Ok (b, t) /\ 4 * t <= 2 * lenN bs /\ 0 <= t.
Proof. exact (fun bs => val_ok2 (hevc_is_idr_total bs)). Qed.
Print Assumptions C16_hevc_IsIDRSample_total.

Theorem C16_hevc_HasParameterSets_total : forall bs : list N,
  exists b t, hevc_has_parameter_sets bs = Ok (b, t) /\ 4 * t <= 2 * lenN bs /\ 0 <= t.
Proof. exact (fun bs => val_ok2 (hevc_has_ps_total bs)). Qed.
Print Assumptions C16_hevc_HasParameterSets_total.

Theorem C16_hevc_GetParameterSets_total : forall bs : list N,
  exists ps t, hevc_get_parameter_sets bs = Ok (ps, t) /\ 4 * t <= 1 * lenN bs /\ ps3_size ps <= t.
Proof. exact (fun bs => val_ok2 (hevc_get_ps_total bs)). Qed.
Print Assumptions C16_hevc_GetParameterSets_total.

(* ------------------------------------------------------------------ the EBSP bit reader (model of C13)
   rwf s: position inside the data and fewer than 8 pending bits (true initially, preserved by reads) *)
(* Read(n) on any well-formed, error-free state: the byte-fill loop never runs out of fuel; the result
   is the sticky error or a well-formed state with at least n fewer unread bits *)
Theorem C16_reader_Read_total : forall (esc : bool) (s : rstate) (n : N),
  rwf s -> rerr s = false ->
  let '(v, s1) := read_gen esc s n in
  rdata s1 = rdata s /\
  (rerr s1 = true \/ (rerr s1 = false /\ rwf s1 /\ bits_left s1 + n <= bits_left s)).
Proof. exact read_gen_inv. Qed.
Print Assumptions C16_reader_Read_total.

(* ReadExpGolomb: the leading-zero loop ends before its fuel (lz_loop <> None) after at most
   bits_left iterations, for every input; the state ends in error or with strictly fewer bits *)
Theorem C16_reader_ReadExpGolomb_total : forall s : rstate,
  rwf s -> rerr s = false ->
  exists lz s1, lz_loop (S (8 * length (rdata s) + 8)) s 0 = Some (lz, s1) /\ lz <= bits_left s /\
  let '(v, s2) := read_ue s in
  rdata s2 = rdata s /\ (rerr s2 = true \/ (rerr s2 = false /\ rwf s2 /\ bits_left s2 < bits_left s)).
Proof. exact read_ue_total. Qed.
Print Assumptions C16_reader_ReadExpGolomb_total.

(* after the first error every read returns 0 in O(1) and leaves the state alone *)
Theorem C16_reader_sticky_error : forall (esc : bool) (s : rstate) (n : N),
  rerr s = true -> read_gen esc s n = (0, s) /\ read_ue s = (0, s).
Proof. exact (fun esc s n H => conj (read_gen_after_error esc s n H) (read_ue_after_error s H)). Qed.
Print Assumptions C16_reader_sticky_error.

(* ------------------------------------------------------------------ count-driven loops
   the repaired shape `for i <= count { read...; append; if AccError != nil { break } }` is total for
   EVERY count: iterations and appends are bounded by the unread bits, not by the count *)
Theorem C16_guarded_count_loop_total : forall fuel count i common w s nal inc t,
  rok s -> (rerr s = false -> bits_left s + 1 < N.of_nat fuel) -> (0 < fuel)%nat ->
  exists nal' inc' s' t',
    du_loop fuel count i common w s nal inc t = Ok (nal', inc', s', t') /\
    rdata s' = rdata s /\ t <= t' /\
    (rerr s = false -> t' - t <= bits_left s + 1) /\ (rerr s = true -> t' - t <= 1) /\
    lenN nal' <= lenN nal + (t' - t) /\ lenN inc' <= lenN inc + (t' - t).
Proof. exact du_loop_total. Qed.
Print Assumptions C16_guarded_count_loop_total.

(* the pinned shape (no break) is refuted: empty payload, count 2^20, fuel 100x linear *)
Theorem C16_unguarded_count_loop_refuted :
  exists payload count, du_loop_unguarded (du_fuel payload * 100) count 0 (rinit payload) [] = OutOfFuel.
Proof. exact du_loop_unguarded_refuted. Qed.
Print Assumptions C16_unguarded_count_loop_refuted.

(* sei.DecodePicTimingHevcSEI: every payload, every external parameter set *)
Theorem C16_sei_DecodePicTimingHevcSEI_total : forall (p : hpt_params) (payload : list N),
  exists fields nal inc e t,
    decode_pic_timing_hevc p payload = Ok (fields, nal, inc, e, t) /\
    t <= 8 * lenN payload + 8 /\ lenN nal <= t /\ lenN inc <= t.
Proof. exact decode_pic_timing_hevc_total. Qed.
Print Assumptions C16_sei_DecodePicTimingHevcSEI_total.

(* ------------------------------------------------------------------ the statements are not vacuous:
   the model computes on the hostile witnesses of DESIGN Appendix A and on a well-formed sample *)
Example ex_wrap_witness_is_error :
  avc_get_nalus_from_sample [255; 255; 255; 252; 0; 0; 0; 0; 0] = Err.
Proof. vm_compute. reflexivity. Qed.

Example ex_wrap_witness_types_stop :
  avc_find_nalu_types [255; 255; 255; 252; 0; 0; 0; 0; 0] = Ok ([0], 1).
Proof. vm_compute. reflexivity. Qed.

Example ex_short_samples :
  avc_contains_nalu_type [] 5 = Ok (false, 0) /\
  avc_get_parameter_sets [0; 0; 1] = Ok (([], []), 0) /\
  convert_sample_to_byte_stream [0; 0; 1] = Ok ([0; 0; 1], 0).
Proof. vm_compute. repeat split. Qed.

(* SPS(2 bytes) PPS(1 byte) IDR(3 bytes) *)
Example ex_well_formed :
  let s := [0;0;0;2; 103;66;  0;0;0;1; 104;  0;0;0;3; 101;136;128] in
  avc_get_nalus_from_sample s = Ok ([[103;66]; [104]; [101;136;128]], 3) /\
  avc_find_nalu_types s = Ok ([7; 8; 5], 3) /\
  avc_has_parameter_sets s = Ok (true, 6) /\
  avc_get_parameter_sets s = Ok (([[103;66]], [[104]]), 3) /\
  avc_is_idr_sample s = Ok (true, 3) /\
  convert_sample_to_byte_stream s = Ok ([0;0;0;1; 103;66;  0;0;0;1; 104;  0;0;0;1; 101;136;128], 3).
Proof. vm_compute. repeat split. Qed.

(* a hostile count of 2^31-1 in a 9-byte payload: one iteration, then the read error ends the loop *)
Example ex_pic_timing_hostile_count :
  decode_pic_timing_hevc (mkHP false true true true 0 0 0 0) [0; 0; 0; 0; 32; 0; 0; 0; 0] =
  Ok ([0; 0; 0; 0; 0; 0; 2147483647; 0; 0], [0], [0], true, 1).
Proof. vm_compute. reflexivity. Qed.

Example ex_rwf_initial : rwf (rinit [1; 2; 3]) /\ rerr (rinit [1; 2; 3]) = false.
Proof. split; [apply rwf_init|reflexivity]. Qed.
