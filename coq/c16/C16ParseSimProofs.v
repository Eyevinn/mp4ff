(* C16ParseSimProofs.v — the C16 wrappers (C16ParseModel.v) REFINE the C15 parser models they were
   derived from: whenever a wrapper returns Ok or Err and the C15 model does not give up with
   OutOfFuel (its constant 2^16 cap), both return the same result.  Together with totality
   (C16ParseErProofs.v) this gives: on every NAL unit on which C15Model.parse_pps / parse_slice_header
   is defined, the C16 wrapper computes exactly the value that C15's own value correspondence ties
   to /repo.  Purely structural: holds for every reader.  No axioms. *)
From V.lib Require Import Base.
From V.c13 Require Import C13Model.
From V.c15 Require Import C15Model C15Avc2Model C15HevcModel.
From V.c16 Require Import C16Model C16ReaderProofs C16SeiProofs C16ParseModel C16HevcParseModel C16ParseProofs C16ParseErProofs
  C16ReaderMoreProofs C16HevcErProofs.

Definition okerr {A} (r : res A) : Prop := r = Err \/ exists x, r = Ok x.

Create HintDb rdb.

Section Sim.
  Context {St : Type} (R : reader St).

  (* P' (the wrapper) refines P (the C15 model) *)
  Definition refines {A} (P' P : @M St A) : Prop :=
    forall s r, P' s = r -> okerr r -> P s <> OutOfFuel -> P s = r.

  Lemma refines_refl {A} (P : @M St A) : refines P P.
  Proof. intros s r E _ _. exact E. Qed.

  Lemma refines_oof_r {A} (P' : @M St A) : refines P' out_of_fuel.
  Proof. intros s r _ _ H. exfalso. apply H. reflexivity. Qed.

  Lemma refines_oof_l {A} (P : @M St A) : refines out_of_fuel P.
  Proof. intros s r E [H|[x H]]; unfold out_of_fuel in E; congruence. Qed.

  Lemma refines_bind {A B} (m' m : @M St A) (k' k : A -> @M St B) :
    refines m' m -> (forall a, refines (k' a) (k a)) -> refines (bind m' k') (bind m k).
  Proof.
    intros Hm Hk s r E Hr Hn. unfold bind in *.
    destruct (m' s) as [[a s1]| | |] eqn:E'.
    - assert (Hmn : m s <> OutOfFuel) by (intros X; rewrite X in Hn; congruence).
      rewrite (Hm s _ E' (or_intror (ex_intro _ _ eq_refl)) Hmn) in *.
      apply (Hk a s1 r E Hr Hn).
    - assert (Hmn : m s <> OutOfFuel) by (intros X; rewrite X in Hn; congruence).
      rewrite (Hm s _ E' (or_introl eq_refl) Hmn). exact E.
    - destruct Hr as [H|[x H]]; congruence.
    - destruct Hr as [H|[x H]]; congruence.
  Qed.

  (* the guarded count loop *)
  Lemma rep_break_f_rep_break {A} (body : @M St A) : forall fuel n s r,
    rep_break_f R fuel n body s = r -> okerr r -> rep_break R (N.to_nat n) body s = r.
  Proof.
    induction fuel as [|f IH]; intros n s r E Hr.
    - cbn [rep_break_f] in E. unfold out_of_fuel in E. destruct Hr as [H|[x H]]; congruence.
    - cbn [rep_break_f] in E. destruct (n =? 0) eqn:Hn.
      + apply N.eqb_eq in Hn. subst n. exact E.
      + apply N.eqb_neq in Hn. replace (N.to_nat n) with (S (N.to_nat (n - 1))) by lia.
        cbn [rep_break]. rewrite bind_get_err in *. destruct (r_err R s); [exact E|].
        unfold bind in *. destruct (body s) as [[x s1]| | |]; try exact E.
        destruct (rep_break_f R f (n - 1) body s1) as [[t s2]| | |] eqn:E2.
        * rewrite (IH (n - 1) s1 _ E2 (or_intror (ex_intro _ _ eq_refl))). exact E.
        * rewrite (IH (n - 1) s1 _ E2 (or_introl eq_refl)). exact E.
        * destruct Hr as [H|[y H]]; congruence.
        * destruct Hr as [H|[y H]]; congruence.
  Qed.

  Lemma refines_rep_break {A} (body : @M St A) fuel n :
    refines (rep_break_f R fuel n body) (rep_break_n R n body).
  Proof.
    intros s r E Hr Hn. unfold rep_break_n in *. destruct (n <=? loop_bound).
    - apply (rep_break_f_rep_break body fuel n s r E Hr).
    - exfalso. apply Hn. reflexivity.
  Qed.

  Lemma rep_until_err_f_struct {A} (body : @M St A) : forall fl n s r,
    rep_until_err_f R fl n body s = r -> okerr r -> rep_until_err R (N.to_nat n) body s = r.
  Proof.
    induction fl as [|f IH]; intros n s r E Hr.
    - cbn [rep_until_err_f] in E. unfold out_of_fuel in E. destruct Hr as [H|[x H]]; congruence.
    - cbn [rep_until_err_f] in E. destruct (n =? 0) eqn:Hn.
      + apply N.eqb_eq in Hn. subst n. exact E.
      + apply N.eqb_neq in Hn. replace (N.to_nat n) with (S (N.to_nat (n - 1))) by lia.
        cbn [rep_until_err]. unfold bind in *. destruct (body s) as [[x s1]| | |]; try exact E.
        unfold get_err in *. destruct (r_err R s1); [exact E|].
        destruct (rep_until_err_f R f (n - 1) body s1) as [[t s2]| | |] eqn:E2.
        * rewrite (IH (n - 1) s1 _ E2 (or_intror (ex_intro _ _ eq_refl))). exact E.
        * rewrite (IH (n - 1) s1 _ E2 (or_introl eq_refl)). exact E.
        * destruct Hr as [H|[y H]]; congruence.
        * destruct Hr as [H|[y H]]; congruence.
  Qed.

  Lemma refines_rep_until_err {A} (body : @M St A) fl n :
    refines (rep_until_err_f R fl n body) (rep_until_err_n R n body).
  Proof.
    intros s r E Hr Hn. unfold rep_until_err_n in *. destruct (n <=? loop_bound).
    - apply (rep_until_err_f_struct body fl n s r E Hr).
    - exfalso. apply Hn. reflexivity.
  Qed.

  Lemma refines_if_oof {A} (c : bool) (P' P : @M St A) : refines P' P -> refines P' (if c then out_of_fuel else P).
  Proof. intros H. destruct c; [apply refines_oof_r|exact H]. Qed.

  (* one step through two programs of the same shape; parts compared earlier are taken from rdb *)
  Ltac rstep :=
    lazymatch goal with
    | |- refines ?a ?b =>
        first [ constr_eq a b; apply refines_refl
              | lazymatch goal with
                | |- refines (bind _ _) (bind _ _) => apply refines_bind; [ | intro ]
                | |- refines (if ?c then _ else _) (if ?c then _ else _) => destruct c
                | |- refines _ (if _ then out_of_fuel else _) => apply refines_if_oof
                | |- refines (match ?x with Some _ => _ | None => _ end) _ => destruct x
                | |- refines (match ?p with pair _ _ => _ end) _ => destruct p
                | |- refines (let _ := _ in _) _ => cbv zeta
                | |- refines (rep_break_f R _ _ _) (rep_break_n R _ _) => apply refines_rep_break
                | |- refines (rep_until_err_f R _ _ _) (rep_until_err_n R _ _) => apply refines_rep_until_err
                | |- _ => solve [auto with rdb]
                end ]
    end.

  (* the two `for { }` loops: the result does not depend on the fuel as long as it is not exhausted *)
  Lemma refines_rplm : forall f1 f2 st, refines (rplm_loop R f1 st) (rplm_loop R f2 st).
  Proof.
    induction f1 as [|f1 IH]; intros f2 st.
    - cbn [rplm_loop]. apply refines_oof_l.
    - destruct f2 as [|f2]; [cbn [rplm_loop]; apply refines_oof_r|].
      cbn [rplm_loop]. destruct st as [[[i0 ad] lt] av].
      repeat first [ apply IH | rstep ].
  Qed.

  Lemma refines_mmco : forall f1 f2 st, refines (mmco_loop R f1 st) (mmco_loop R f2 st).
  Proof.
    induction f1 as [|f1 IH]; intros f2 st.
    - cbn [mmco_loop]. apply refines_oof_l.
    - destruct f2 as [|f2]; [cbn [mmco_loop]; apply refines_oof_r|].
      cbn [mmco_loop]. destruct st as [[[df lt] fi] mx].
      repeat first [ apply IH | rstep ].
  Qed.

  Local Hint Resolve refines_rplm refines_mmco : rdb.

  Lemma refines_pps fuel spsmap : refines (parse_pps_d R fuel spsmap) (parse_pps R spsmap).
  Proof.
    unfold parse_pps_d, parse_pps, parse_pps_pre_d, parse_pps_pre,
      parse_pps_slice_groups_d, parse_pps_slice_groups.
    repeat rstep.
  Qed.

  Lemma refines_slice fuel spsmap ppsmap :
    refines (parse_slice_header_d R fuel spsmap ppsmap) (parse_slice_header2 R spsmap ppsmap).
  Proof.
    unfold parse_slice_header_d, parse_slice_header2. repeat rstep.
  Qed.
  (* ================================================================== HEVC *)
  Lemma refines_hext : forall f1 f2 acc, refines (hext_data_loop R f1 acc) (hext_data_loop R f2 acc).
  Proof.
    induction f1 as [|f1 IH]; intros f2 acc.
    - cbn [hext_data_loop]. apply refines_oof_l.
    - destruct f2 as [|f2]; [cbn [hext_data_loop]; apply refines_oof_r|].
      cbn [hext_data_loop]. repeat first [ apply IH | rstep ].
  Qed.

  Lemma refines_hlt : forall fl cnt i nlsps sp acc npt,
    refines (hlt_loop_f R fl cnt i nlsps sp acc npt) (hlt_loop R (N.to_nat cnt) i nlsps sp acc npt).
  Proof.
    induction fl as [|f IH]; intros cnt i nlsps sp acc npt.
    - cbn [hlt_loop_f]. apply refines_oof_l.
    - cbn [hlt_loop_f]. destruct (cnt =? 0) eqn:Hc.
      + apply N.eqb_eq in Hc. subst cnt. cbn [N.to_nat hlt_loop]. apply refines_refl.
      + apply N.eqb_neq in Hc. replace (N.to_nat cnt) with (S (N.to_nat (cnt - 1))) by lia.
        cbn [hlt_loop]. repeat first [ apply IH | rstep ].
  Qed.

  Local Hint Resolve refines_hext refines_hlt : rdb.

  Lemma refines_hsps_ext fuel chroma bdl bdc :
    refines (hparse_sps_ext_d R fuel chroma bdl bdc) (hparse_sps_ext R chroma bdl bdc).
  Proof. unfold hparse_sps_ext_d, hparse_sps_ext, hparse_sps_scc_d, hparse_sps_scc. repeat rstep. Qed.
  Local Hint Resolve refines_hsps_ext : rdb.

  Lemma refines_hsps fuel : refines (hparse_sps_d R fuel) (hparse_sps R).
  Proof. unfold hparse_sps_d, hparse_sps. repeat rstep. Qed.

  (* where C15 gives up (`if mf || df then out_of_fuel`) the wrapper runs its own skeletons of the two extension
     parsers; where C15 goes on, the wrapper's extra step is `ret tt` *)
  Lemma refines_ext_skeleton {A} (c : bool) (X : @M St unit) (K' K : @M St A) : refines K' K ->
    refines (bind (if c then X else ret tt) (fun _ => K')) (if c then out_of_fuel else K).
  Proof.
    intros H. destruct c; [apply refines_oof_r|].
    intros s r E Hr Hn. apply (H s r); [|exact Hr|exact Hn]. exact E.
  Qed.

  Lemma refines_hpps_range fuel ts : refines (hparse_pps_range_d R fuel ts) (hparse_pps_range R ts).
  Proof. unfold hparse_pps_range_d, hparse_pps_range. repeat rstep. Qed.
  Lemma refines_hpps_scc fuel : refines (hparse_pps_scc_d R fuel) (hparse_pps_scc R).
  Proof. unfold hparse_pps_scc_d, hparse_pps_scc. repeat rstep. Qed.
  Local Hint Resolve refines_hpps_range refines_hpps_scc : rdb.

  Lemma refines_hpps fuel spsmap : refines (hparse_pps_d R fuel spsmap) (hparse_pps R spsmap).
  Proof. unfold hparse_pps_d, hparse_pps. repeat first [ apply refines_ext_skeleton | rstep ]. Qed.

  Lemma refines_hslice_main fuel nt sp pp : refines (hparse_slice_main_d R fuel nt sp pp) (hparse_slice_main R nt sp pp).
  Proof. unfold hparse_slice_main_d, hparse_slice_main. repeat rstep. Qed.
  Local Hint Resolve refines_hslice_main : rdb.

  Lemma refines_hslice bib fuel spsmap ppsmap :
    refines (hparse_slice_d R bib fuel spsmap ppsmap) (hparse_slice R bib spsmap ppsmap).
  Proof. unfold hparse_slice_d, hparse_slice. repeat rstep. Qed.
End Sim.

(* a wrapper that refines the C15 model and is total computes what the C15 model computes wherever that is defined *)
Lemma refines_run {St A} (P' P : St -> res (A * St)) s :
  refines P' P -> okerr (run P' s) -> run P s <> OutOfFuel -> run P' s = run P s.
Proof.
  intros H Hr Hn. unfold run in *.
  rewrite (H s _ eq_refl); [reflexivity| |intros X; apply Hn; rewrite X; reflexivity].
  destruct (P' s) as [[a s']| | |]; destruct Hr as [Hr|[x Hr]]; try discriminate Hr; [right; eauto|left; reflexivity].
Qed.

Lemma okerr_of {A} (P : A -> Prop) (r : res A) : (r = Err \/ exists a, r = Ok a /\ P a) -> okerr r.
Proof. intros [E|(a & E & _)]; [left; exact E|right; eauto]. Qed.

Lemma c16_parse_pps_agrees spsmap nalu :
  parse_pps_er spsmap nalu <> OutOfFuel -> c16_parse_pps spsmap nalu = parse_pps_er spsmap nalu.
Proof. apply (refines_run _ _ _ (refines_pps ER _ spsmap)). eapply okerr_of, c16_parse_pps_total. Qed.

Lemma c16_parse_slice_agrees spsmap ppsmap nalu :
  parse_slice2_er spsmap ppsmap nalu <> OutOfFuel ->
  c16_parse_slice spsmap ppsmap nalu = parse_slice2_er spsmap ppsmap nalu.
Proof. apply (refines_run _ _ _ (refines_slice ER _ spsmap ppsmap)), c16_parse_slice_total. Qed.

(* ------------------------------------------------------------------ HEVC: the wrappers agree with the C15 models *)
Lemma c16_hparse_sps_agrees nalu :
  hparse_sps_er nalu <> OutOfFuel -> c16_hparse_sps nalu = hparse_sps_er nalu.
Proof. apply (refines_run _ _ _ (refines_hsps ER _)). eapply okerr_of, c16_hparse_sps_total. Qed.

Lemma c16_hparse_slice_agrees spsmap ppsmap nalu :
  (forall id sp, spsmap id = Some sp -> hsps_wf sp) ->
  (forall id pp, ppsmap id = Some pp -> hpps_wf pp) ->
  hparse_slice_er spsmap ppsmap nalu <> OutOfFuel ->
  c16_hparse_slice spsmap ppsmap nalu = hparse_slice_er spsmap ppsmap nalu.
Proof. intros H1 H2. apply (refines_run _ _ _ (refines_hslice ER _ _ spsmap ppsmap)), c16_hparse_slice_total; assumption. Qed.

(* PPS: where C15's model is defined (no multilayer / 3D extension, counts below its caps) the wrapper equals it *)
Lemma c16_hparse_pps_agrees spsmap nalu :
  hparse_pps_er spsmap nalu <> OutOfFuel -> c16_hparse_pps spsmap nalu = hparse_pps_er spsmap nalu.
Proof. apply (refines_run _ _ _ (refines_hpps ER _ spsmap)). eapply okerr_of, c16_hparse_pps_total. Qed.
