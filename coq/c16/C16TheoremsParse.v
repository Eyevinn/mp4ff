(* C16TheoremsParse.v — C16 theorems for the AVC parameter-set and slice-header parsers (second theorems
   file of C16; the walkers / reader / SEI 1 theorems are in C16Theorems.v).  Each theorem is closed by
   `exact <lemma>` and followed by Print Assumptions (audited by ./check on every run).

   Models: coq/c15/C15Model.v (imported read-only; tied to /repo by C15's value correspondence) through
   the wrappers of C16ParseModel.v, which replace C15's constant loop caps (2^16) by fuel taken from the
   input: parse_fuel nalu = 8*|nalu| + 10.  `c16_parse_*` run over ER, the C13 model of bits.EBSPReader.
   Shape of every statement: for EVERY byte list (no hypothesis; elements need not be < 256) and EVERY
   content of the parameter-set maps (arbitrary record values, not only ones a parser can return) the
   result is Err or Ok: never Panic, never OutOfFuel.  Never OutOfFuel IS the iteration bound: each
   data-driven loop (`for { ... if AccError != nil { break } }`) runs at most 8*|nalu| + 10 times; the
   other loops are guarded by constants (<= 255 / 32 / 12 / 64 / 8) which the size clauses make explicit. *)
From V.lib Require Import Base.
From V.c13 Require Import C13Model.
From V.c15 Require Import C15Model C15Avc2Model.
From V.c16 Require Import C16SeiProofs C16ParseModel C16ParseProofs C16ParseErProofs C16ParseSimProofs.
From V.c16 Require Import C16SeiNaluModel C16SeiNaluProofs.

(* every scaling list has at most 64 entries *)
Definition scaling_sizes (l : list (option (list Z))) : Prop :=
  Forall (fun o => match o with Some x => (length x <= 64)%nat | None => True end) l.
Definition hrd_sizes (o : option hrd) : Prop :=
  match o with Some h => lenN (hrd_entries h) <= 32 | None => True end.

(* avc.ParseSPSNALUnit(data, parseVUIBeyondAspectRatio): everything it allocates has constant size *)
Theorem C16_avc_ParseSPSNALUnit_total : forall (beyond : bool) (nalu : list N),
  c16_parse_sps beyond nalu = Err \/
  exists s, c16_parse_sps beyond nalu = Ok s /\
    lenN (sps_ref_frames_in_poc_cycle s) <= 255 /\
    ((length (sps_seq_scaling_lists s) <= 12)%nat /\ scaling_sizes (sps_seq_scaling_lists s)) /\
    match sps_vui s with
    | Some v => hrd_sizes (vui_nal_hrd v) /\ hrd_sizes (vui_vcl_hrd v)
    | None => True
    end.
Proof. exact c16_parse_sps_total. Qed.
Print Assumptions C16_avc_ParseSPSNALUnit_total.

(* the same for ANY reader and ANY reader state (no data-driven loop in the SPS parser) *)
Theorem C16_avc_ParseSPSNALUnit_total_any_reader :
  forall (St : Type) (R : reader St) (beyond : bool) (s : St),
  parse_sps R beyond s = Err \/ exists a s', parse_sps R beyond s = Ok (a, s') /\ sps_lists_ok a.
Proof. exact (@parse_sps_any). Qed.
Print Assumptions C16_avc_ParseSPSNALUnit_total_any_reader.

(* avc.ParsePPSNALUnit(data, spsMap) for every spsMap (id -> ChromaFormatIDC): the slice_group_id list
   (map type 6, count pic_size_in_map_units_minus1 + 1 up to 2^64) has at most 8*|nalu| + 1 entries *)
Theorem C16_avc_ParsePPSNALUnit_total : forall (spsmap : N -> option N) (nalu : list N),
  c16_parse_pps spsmap nalu = Err \/
  exists p, c16_parse_pps spsmap nalu = Ok p /\
    lenN (pps_run_length_minus1 p) <= 8 /\ lenN (pps_top_left p) <= 7 /\ lenN (pps_bottom_right p) <= 7 /\
    lenN (pps_slice_group_id p) <= 8 * lenN nalu + 1 /\
    ((length (pps_pic_scaling_lists p) <= 12)%nat /\ scaling_sizes (pps_pic_scaling_lists p)).
Proof. exact c16_parse_pps_total. Qed.
Print Assumptions C16_avc_ParsePPSNALUnit_total.

(* avc.ParseSliceHeader(nalu, spsMap, ppsMap) for every content of both maps: the two `for { }` loops
   (ref_pic_list_modification x2, dec_ref_pic_marking) and the two pred_weight_table loops (counts up to
   2^32) all end within parse_fuel nalu iterations; nothing is allocated per iteration *)
Theorem C16_avc_ParseSliceHeader_total :
  forall (spsmap : N -> option sps) (ppsmap : N -> option pps) (nalu : list N),
  c16_parse_slice spsmap ppsmap nalu = Err \/ exists h, c16_parse_slice spsmap ppsmap nalu = Ok h.
Proof. exact c16_parse_slice_total. Qed.
Print Assumptions C16_avc_ParseSliceHeader_total.

(* avc.GetSliceTypeFromNALU: data[0] and data[1:] are modelled as partial operations *)
Theorem C16_avc_GetSliceTypeFromNALU_total : forall data : list N,
  get_slice_type data = Err \/ exists t, get_slice_type data = Ok t /\ t <= 4.
Proof. exact get_slice_type_total. Qed.
Print Assumptions C16_avc_GetSliceTypeFromNALU_total.

(* avc.ParseSEINalu(nalu, sps) / hevc.ParseSEINalu(nalu, sps): header accesses partial, extraction, one
   decoder per message as sei.DecodeSEIMessage / the picture-timing special case choose it.  For EVERY
   NAL unit and EVERY context value derived from the SPS (a fortiori every SPS: avc_pt_of_sps; for HEVC
   every HEVCPicTimingParams value): a value or an error, at most |nalu|/2 messages.
   (n, true) = the messages are returned together with ErrRbspTrailingBitsMissing. *)
Theorem C16_avc_ParseSEINalu_total : forall (ctx : avc_pt_ctx) (nalu : list N),
  avc_parse_sei_nalu ctx nalu = Err \/
  exists n miss, avc_parse_sei_nalu ctx nalu = Ok (n, miss) /\ 2 * n <= lenN nalu.
Proof. exact avc_parse_sei_nalu_total. Qed.
Print Assumptions C16_avc_ParseSEINalu_total.

Theorem C16_hevc_ParseSEINalu_total : forall (ctx : option C16Model.hpt_params) (nalu : list N),
  hevc_parse_sei_nalu ctx nalu = Err \/
  exists n miss, hevc_parse_sei_nalu ctx nalu = Ok (n, miss) /\ 2 * n <= lenN nalu.
Proof. exact hevc_parse_sei_nalu_total. Qed.
Print Assumptions C16_hevc_ParseSEINalu_total.

(* the loop lemmas behind it: from every reachable reader state (rok: sticky error or well-formed) with
   potential mu_er s (= unread bits + 1, 0 after the error), fuel > potential is never exhausted, the
   potential never grows, and the guarded count loop appends at most `potential` elements, whatever the
   count n (also 2^64) *)
Theorem C16_ref_pic_list_modification_loop_total : forall (fuel : nat) (st : N * N * N * N) (s : rstate),
  rok s -> mu_er s < N.of_nat fuel ->
  rplm_loop ER fuel st s = Err \/
  exists a s', rplm_loop ER fuel st s = Ok (a, s') /\ rok s' /\ mu_er s' <= mu_er s.
Proof. exact (fun fuel st s Hs Hf => rplm_loop_er_total fuel s Hs Hf st). Qed.
Print Assumptions C16_ref_pic_list_modification_loop_total.

Theorem C16_dec_ref_pic_marking_loop_total : forall (fuel : nat) (st : N * N * N * N) (s : rstate),
  rok s -> mu_er s < N.of_nat fuel ->
  mmco_loop ER fuel st s = Err \/
  exists a s', mmco_loop ER fuel st s = Ok (a, s') /\ rok s' /\ mu_er s' <= mu_er s.
Proof. exact (fun fuel st s Hs Hf => mmco_loop_er_total fuel s Hs Hf st). Qed.
Print Assumptions C16_dec_ref_pic_marking_loop_total.

Theorem C16_guarded_count_loop_slice_group_id_total : forall (fuel : nat) (n w : N) (s : rstate),
  1 <= w -> rok s -> mu_er s < N.of_nat fuel ->
  rep_break_f ER fuel n (rd ER w) s = Err \/
  exists l s', rep_break_f ER fuel n (rd ER w) s = Ok (l, s') /\ rok s' /\
               lenN l + mu_er s' <= mu_er s /\ lenN l <= n.
Proof. exact (fun fuel n w s Hw Hs Hf => slice_group_id_loop_er_total fuel s Hs Hf n w Hw). Qed.
Print Assumptions C16_guarded_count_loop_slice_group_id_total.

(* the wrappers compute exactly what the C15 models compute wherever those are defined (do not hit their
   constant 2^16 loop cap): C15's value-level correspondence with /repo carries over to c16_parse_* *)
Theorem C16_avc_ParsePPSNALUnit_agrees_with_C15_model : forall (spsmap : N -> option N) (nalu : list N),
  parse_pps_er spsmap nalu <> OutOfFuel -> c16_parse_pps spsmap nalu = parse_pps_er spsmap nalu.
Proof. exact c16_parse_pps_agrees. Qed.
Print Assumptions C16_avc_ParsePPSNALUnit_agrees_with_C15_model.

(* the slice header: against C15Avc2Model.parse_slice_header2, C15's model of the repaired text (/repo 174cc8e:
   slice_group_change_cycle width from the SPS's PicSizeInMapUnits) *)
Theorem C16_avc_ParseSliceHeader_agrees_with_C15_model :
  forall (spsmap : N -> option sps) (ppsmap : N -> option pps) (nalu : list N),
  parse_slice2_er spsmap ppsmap nalu <> OutOfFuel ->
  c16_parse_slice spsmap ppsmap nalu = parse_slice2_er spsmap ppsmap nalu.
Proof. exact c16_parse_slice_agrees. Qed.
Print Assumptions C16_avc_ParseSliceHeader_agrees_with_C15_model.

(* the constant cap of the C15 model is what these wrappers remove: on this 14-byte PPS (2 slice groups,
   map type 6, pic_size_in_map_units_minus1 = 2^32-2) C15Model.parse_pps gives up (OutOfFuel: count
   above 2^16) while the Go loop, and the wrapper, stop at the end of the data *)
Definition ex_pps_map6 : list N := [104; 196; 112; 0; 0; 0; 31; 255; 255; 255; 245; 85; 85; 64].
Example ex_pps_hostile_map6 :
  parse_pps_er (fun _ => None) ex_pps_map6 = OutOfFuel /\ c16_parse_pps (fun _ => None) ex_pps_map6 = Err.
Proof. vm_compute. split; reflexivity. Qed.

(* ------------------------------------------------------------------ not vacuous *)
(* a real SPS / PPS pair (High profile 320x180, from the repository's test content) and slices *)
Definition ex_sps : list N :=
  [103; 100; 0; 13; 172; 217; 65; 65; 159; 158; 16; 0; 0; 3; 0; 16; 0; 0; 3; 3; 192; 241; 66; 153; 96].
Definition ex_pps : list N := [104; 235; 236; 178; 44].
Example ex_sps_parses :
  exists s, c16_parse_sps true ex_sps = Ok s /\ sps_width s = 320 /\ sps_height s = 180 /\ sps_profile s = 100.
Proof. eexists. split; [vm_compute; reflexivity|]. repeat split. Qed.

Definition ex_spsmap : N -> option sps :=
  match c16_parse_sps true ex_sps with Ok s => fun id => if id =? sps_id s then Some s else None | _ => fun _ => None end.
Definition ex_ppsmap : N -> option pps :=
  match c16_parse_pps (fun _ => Some 1) ex_pps with Ok p => fun id => if id =? pps_id p then Some p else None | _ => fun _ => None end.

Example ex_idr_slice_parses :
  exists h, c16_parse_slice ex_spsmap ex_ppsmap [101; 136; 132; 0; 51; 255] = Ok h /\ sh_slice_type h = 7 /\ sh_size h = 6.
Proof. eexists. split; [vm_compute; reflexivity|]. split; reflexivity. Qed.

(* a P slice of 0xff bytes: the ref_pic_list_modification loop runs once per 2 bits and ends with the data *)
Example ex_slice_all_ones : res_class (c16_parse_slice ex_spsmap ex_ppsmap (65 :: 154 :: repeat 255 40)) = 0.
Proof. vm_compute. reflexivity. Qed.

(* hostile: an SPS whose POC-cycle count is far above 255 is an error, not a loop *)
Example ex_sps_hostile_count :
  c16_parse_sps true [103; 66; 0; 30; 248; 0; 0; 0; 0; 128; 0; 0; 0; 1] = Err.
Proof. vm_compute. reflexivity. Qed.

Example ex_slice_type_short : get_slice_type [] = Err /\ get_slice_type [101] = Err /\ get_slice_type [101; 136] = Ok 2.
Proof. vm_compute. repeat split. Qed.

(* F8 witnesses (empty unit, one-byte HEVC unit) and a unit with two messages, one of them pic timing
   decoded with the HRD lengths of the SPS context *)
Example ex_sei_nalu :
  avc_parse_sei_nalu None [] = Err /\ hevc_parse_sei_nalu None [78] = Err /\
  avc_parse_sei_nalu (Some (None, 0)) [6; 1; 1; 16; 5; 2; 10; 11; 128] = Err /\
  avc_parse_sei_nalu (Some (None, 0)) [6; 1; 1; 16; 6; 2; 10; 11; 128] = Ok (2, false) /\
  avc_parse_sei_nalu (avc_pt_of_sps (match c16_parse_sps true ex_sps with Ok s => Some s | _ => None end))
                     [6; 1; 1; 16; 128] = Ok (1, false).
Proof. vm_compute. repeat split. Qed.

Example ex_slice_no_pps : c16_parse_slice (fun _ => None) (fun _ => None) [101; 136; 132; 0] = Err.
Proof. vm_compute. reflexivity. Qed.
