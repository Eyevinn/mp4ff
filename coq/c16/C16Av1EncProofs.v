(* C16Av1EncProofs.v — av1.CodecConfRec.Encode never runs out of its buffer (for EVERY record value) and gives back
   the decoded bytes (for every byte input the decoder accepts).  No axioms. *)
From V.lib Require Import Base.
From V.c16 Require Import C16ConfRecModel C16ConfRecProofs C16Av1EncModel.

Lemma fsw_put_all cap : forall l acc e, lenN acc + lenN l <= cap ->
  fold_left (fsw_put cap) l (acc, e) = (acc ++ l, e).
Proof.
  induction l as [|b t IH]; intros acc e H; cbn [fold_left].
  - rewrite app_nil_r. reflexivity.
  - rewrite lenN_cons in H. unfold fsw_put at 2. cbn [fst snd].
    replace (cap <? lenN acc + 1) with false by lia.
    rewrite IH by (rewrite lenN_app; change (lenN [b]) with 1; lia).
    rewrite <- app_assoc. reflexivity.
Qed.

Lemma av1_encode_total r :
  av1_encode r = Ok (av1_header r ++ av_config_obus r) /\ lenN (av1_header r ++ av_config_obus r) = av1_size r.
Proof.
  unfold av1_encode, av1_size. set (cap := 4 + lenN (av_config_obus r)).
  assert (H4 : lenN (av1_header r) = 4) by reflexivity.
  assert (Hl : lenN (av1_header r ++ av_config_obus r) = cap) by (rewrite lenN_app, H4; reflexivity).
  split; [|exact Hl].
  rewrite fsw_put_all by (rewrite H4; change (lenN (@nil N)) with 0; lia). cbn [app].
  destruct (lenN (av_config_obus r) =? 0) eqn:H0; cbn [negb].
  - cbn [snd fst]. destruct (av_config_obus r) as [|x t]; [rewrite app_nil_r; reflexivity|].
    rewrite lenN_cons in H0. lia.
  - unfold fsw_put_bytes. cbn [fst snd]. rewrite H4.
    replace (cap <? 4 + lenN (av_config_obus r)) with false by (unfold cap; lia).
    cbn [fst snd]. reflexivity.
Qed.

(* the four header bytes: a fact about every byte is checked on the 256 of them *)
Definition bytes256 : list N := map N.of_nat (seq 0 256).

Lemma byte_sweep (P : N -> bool) : forallb P bytes256 = true -> forall b, b < 256 -> P b = true.
Proof.
  intros G b H. rewrite forallb_forall in G. apply G. unfold bytes256. apply in_map_iff.
  exists (N.to_nat b). split; [lia|]. apply in_seq. lia.
Qed.

Lemma hdr1_ok b : b < 256 -> ((N.shiftr b 5 mod 8) * 32 + N.land b 31 mod 32 =? b) = true.
Proof. revert b. apply byte_sweep. vm_compute. reflexivity. Qed.

Lemma hdr2_ok b : b < 256 ->
  ((N.shiftr b 7 mod 2) * 128 + (N.land (N.shiftr b 6) 1 mod 2) * 64 + (N.land (N.shiftr b 5) 1 mod 2) * 32 +
   (N.land (N.shiftr b 4) 1 mod 2) * 16 + (N.land (N.shiftr b 3) 1 mod 2) * 8 + (N.land (N.shiftr b 2) 1 mod 2) * 4 +
   N.land b 3 mod 4 =? b) = true.
Proof. revert b. apply byte_sweep. vm_compute. reflexivity. Qed.

(* byte 3 under the decoder's checks: reserved bits zero; without the presence bit the low nibble is zero *)
Lemma hdr3_ok b : b < 256 ->
  (negb (N.shiftr b 5 =? 0) || (negb (N.land (N.shiftr b 4) 1 =? 1) && negb (N.land b 15 =? 0)) ||
   ((N.land (N.shiftr b 4) 1 mod 2) * 16 +
    (if N.land (N.shiftr b 4) 1 =? 1 then (if N.land (N.shiftr b 4) 1 =? 1 then N.land b 15 else 0) mod 16 else 0) =? b)) = true.
Proof. revert b. apply byte_sweep. vm_compute. reflexivity. Qed.

(* byte 0 under the decoder's checks: marker bit set, version 1 *)
Lemma hdr0_ok b : b < 256 ->
  (negb (N.shiftr b 7 =? 1) || negb (N.land b 127 =? 1) || (128 + N.land b 127 mod 128 =? b)) = true.
Proof. revert b. apply byte_sweep. vm_compute. reflexivity. Qed.

Lemma cr_idx_nth bs i b : nth_error bs i = Some b -> cr_idx bs (Z.of_nat i) = Ok b.
Proof.
  intros H. assert (i < length bs)%nat by (apply nth_error_Some; congruence). unfold cr_idx, cr_len.
  replace ((0 <=? Z.of_nat i) && (Z.of_nat i <? Z.of_nat (length bs)))%Z with true by lia.
  rewrite Nat2Z.id, H. reflexivity.
Qed.

(* every byte input the decoder accepts is given back by Encode: nothing is lost, nothing is invented, and the
   buffer of Size() bytes is exactly filled *)
Lemma av1_decode_encode_roundtrip data r :
  Forall (fun b => b < 256) data -> av1_decode_codec_conf_rec data = Ok r ->
  av1_encode r = Ok data /\ av1_size r = lenN data.
Proof.
  intros Hb E. destruct (av1_encode_total r) as [Ee Hl]. rewrite Ee, <- Hl.
  enough (G : av1_header r ++ av_config_obus r = data) by (rewrite G; split; reflexivity).
  unfold av1_decode_codec_conf_rec in E.
  destruct (cr_len data <? 4)%Z eqn:H4; [discriminate|].
  destruct data as [|b0 [|b1 [|b2 [|b3 obus]]]]; try (unfold cr_len in H4; cbn [length] in H4; lia).
  repeat match goal with H : Forall _ (_ :: _) |- _ => inversion_clear H end.
  assert (Eo : (if (cr_len (b0 :: b1 :: b2 :: b3 :: obus) >? 4)%Z
                then cr_slice (b0 :: b1 :: b2 :: b3 :: obus) 4 (cr_len (b0 :: b1 :: b2 :: b3 :: obus))
                else Ok []) = Ok obus).
  { unfold cr_slice, cr_len. cbn [length]. destruct obus as [|o t].
    - replace (Z.of_nat 4 >? 4)%Z with false by lia. reflexivity.
    - cbn [length]. replace (Z.of_nat _ >? 4)%Z with true by lia.
      match goal with |- context [if ?c then _ else _] => replace c with true by lia end.
      replace (Z.to_nat (Z.of_nat (S (S (S (S (S (length t)))))) - 4)) with (length (o :: t)) by (cbn [length]; lia).
      change (Z.to_nat 4) with 4%nat. cbn [skipn]. rewrite firstn_all. reflexivity. }
  rewrite Eo in E. clear Eo H4.
  pose proof (cr_idx_nth (b0 :: b1 :: b2 :: b3 :: obus)) as I.
  rewrite (I 0%nat b0 eq_refl : cr_idx _ 0 = _), (I 1%nat b1 eq_refl : cr_idx _ 1 = _),
    (I 2%nat b2 eq_refl : cr_idx _ 2 = _), (I 3%nat b3 eq_refl : cr_idx _ 3 = _) in E. cbn [rbind] in E. clear I.
  pose proof (hdr0_ok b0) as G0. pose proof (hdr3_ok b3) as G3.
  destruct (N.shiftr b0 7 =? 1) eqn:?; cbn [negb orb] in E, G0; [|discriminate].
  destruct (N.land b0 127 =? 1) eqn:?; cbn [negb orb] in E, G0; [|discriminate].
  destruct (N.shiftr b3 5 =? 0) eqn:?; cbn [negb orb] in E, G3; [|discriminate].
  destruct (negb (N.land (N.shiftr b3 4) 1 =? 1) && negb (N.land b3 15 =? 0)) eqn:?; cbn [orb] in G3; [discriminate|].
  injection E as <-.
  unfold av1_header. cbn [av_version av_seq_profile av_seq_level_idx0 av_seq_tier0 av_high_bitdepth av_twelve_bit
    av_monochrome av_subsampling_x av_subsampling_y av_sample_position av_ipd_present av_ipd_minus_one av_config_obus app].
  repeat f_equal; apply N.eqb_eq; first [apply hdr1_ok | apply hdr2_ok | apply G0 | apply G3]; assumption.
Qed.
