(* C16ParseErProofs.v — the program logic of C16ParseProofs.v instantiated
   (a) trivially (inv = True, mu = 0): ParseSPSNALUnit is total from ANY state of ANY reader (it contains only
       count-guarded loops);
   (b) for ER, the C13 model of bits.EBSPReader: inv = rok (sticky error or well-formed), potential
       mu = unread bits + 1 (0 after the error); every read of >= 1 bit consumes potential
       (C16ReaderProofs.v), so the data-driven loops of ParsePPSNALUnit / ParseSliceHeader end within
       8*|nalu| + 1 iterations.
   Results: c16_parse_sps_total, c16_parse_pps_total, c16_parse_slice_total.  No axioms. *)
From V.lib Require Import Base.
From V.c13 Require Import C13Model.
From V.c15 Require Import C15Model.
From V.c16 Require Import C16Model C16ReaderProofs C16SeiProofs C16ParseModel C16ParseProofs.

(* ------------------------------------------------------------------ (a) trivial instance *)
(* avc.ParseSPSNALUnit over ANY reader from ANY state *)
Lemma parse_sps_any {St : Type} (R : reader St) beyond s :
  parse_sps R beyond s = Err \/
  exists a s', parse_sps R beyond s = Ok (a, s') /\ sps_lists_ok a.
Proof.
  destruct (J_parse_sps R (fun _ => True) (fun _ => 0)) with (beyond := beyond) (s := s)
    as [E|(a & s' & E & _ & _ & H)]; try (intros; repeat split; lia); [left; exact E|right; eauto].
Qed.

(* ------------------------------------------------------------------ (b) the EBSP reader *)
Definition mu_er (s : rstate) : N := if rerr s then 0 else bits_left s + 1.
Definition inv_er (B : N) (s : rstate) : Prop := rok s /\ mu_er s <= B.

(* a reader step that, unless it ends in the error, started without it and consumed k bits *)
Lemma mu_er_step k s s' : rok s' ->
  (rerr s' = false -> rerr s = false /\ bits_left s' + k <= bits_left s) ->
  rok s' /\ mu_er s' <= mu_er s /\ (1 <= k -> 0 < mu_er s -> mu_er s' < mu_er s).
Proof.
  intros H A. split; [exact H|]. unfold mu_er. destruct (rerr s') eqn:E1.
  - split; [lia|]. intros _ Hp. exact Hp.
  - destruct (A eq_refl) as (E0 & Hb). rewrite E0. split; lia.
Qed.

Lemma mu_er_read s n : rok s ->
  rok (snd (read s n)) /\ mu_er (snd (read s n)) <= mu_er s /\
  (1 <= n -> 0 < mu_er s -> mu_er (snd (read s n)) < mu_er s).
Proof. intros H. destruct (read_rok s n H) as (A1 & _ & A3). exact (mu_er_step n _ _ A1 A3). Qed.

Lemma mu_er_ue s : rok s ->
  rok (snd (read_ue s)) /\ mu_er (snd (read_ue s)) <= mu_er s /\
  (0 < mu_er s -> mu_er (snd (read_ue s)) < mu_er s).
Proof.
  intros H. destruct (read_ue_rok s H) as (A1 & _ & A3).
  destruct (mu_er_step 1 s _ A1) as (B1 & B2 & B3); [intros E; destruct (A3 E); split; [assumption|lia]|].
  split; [exact B1|]. split; [exact B2|]. apply B3. lia.
Qed.

Lemma snd_read_flag s : snd (read_flag s) = snd (read s 1).
Proof. unfold read_flag. destruct (read s 1). reflexivity. Qed.

Lemma snd_read_se s : snd (read_se s) = snd (read_ue s).
Proof.
  unfold read_se. destruct (read_ue s) as [u s1]. cbn [snd].
  destruct (rerr s1); [reflexivity|]. destruct (u mod 2 =? 1); reflexivity.
Qed.

(* MoreRbspData (er_more) and ReadRbspTrailingBits (er_trailing, which RESETS the sticky error after the
   final failed read) keep `rok` and never increase the potential *)
(* a failed Read(1) from a well-formed state leaves a state that is well-formed again once the error
   flag is cleared, with no more unread bits than before *)
Lemma read1_error_state s :
  rwf s -> rerr s = false -> rerr (snd (read s 1)) = true ->
  rwf (rset_err (snd (read s 1)) false) /\ bits_left (rset_err (snd (read s 1)) false) <= bits_left s.
Proof.
  intros Hw He Hf. destruct (read_gen_failed true s 1 Hw He Hf) as (Hd & Hp & Hn & Hb).
  unfold read, rwf, bits_left, rset_err in *. cbn [rpos rdata rn]. rewrite Hd in *. lia.
Qed.

Lemma mu_er_reset s1 s : rwf (rset_err s1 false) -> bits_left (rset_err s1 false) <= bits_left s ->
  rerr s = false -> rok (rset_err s1 false) /\ mu_er (rset_err s1 false) <= mu_er s.
Proof.
  intros Hw Hb He. split; [right; exact Hw|]. unfold mu_er. rewrite He. cbn [rset_err rerr]. lia.
Qed.

(* trail_loop is only entered, and only continues, after a successful read *)
Lemma trail_loop_ok : forall fuel s, rwf s -> rerr s = false ->
  rok (snd (trail_loop fuel s)) /\ mu_er (snd (trail_loop fuel s)) <= mu_er s.
Proof.
  induction fuel as [|f IH]; intros s Hw He; cbn [trail_loop].
  - cbn [snd]. split; [right; exact Hw|lia].
  - pose proof (read1_error_state s Hw He) as Herr.
    pose proof (read_gen_inv true s 1 Hw He) as Hinv. unfold read in *.
    destruct (read_gen true s 1) as [b s1]. cbn [snd] in Herr. destruct Hinv as (Hd & Hr).
    destruct (rerr s1) eqn:He1.
    + cbn [snd]. destruct (Herr eq_refl) as (W & Bl). apply (mu_er_reset s1 s W Bl He).
    + destruct Hr as [Hr|(_ & Hw1 & Hb1)]; [congruence|].
      assert (Hm1 : mu_er s1 <= mu_er s) by (unfold mu_er; rewrite He, He1; lia).
      destruct (b =? 1).
      * cbn [snd]. split; [right; exact Hw1|exact Hm1].
      * destruct (IH s1 Hw1 He1) as (A & B). split; [exact A|lia].
Qed.

Lemma er_trailing_ok s : rok s ->
  rok (snd (er_trailing s)) /\ mu_er (snd (er_trailing s)) <= mu_er s.
Proof.
  intros Hs. unfold er_trailing. destruct (rerr s) eqn:He; [cbn [snd]; split; [exact Hs|lia]|].
  destruct Hs as [Hs|Hw]; [congruence|].
  pose proof (read_gen_inv true s 1 Hw He) as Hinv. unfold read in *.
  destruct (read_gen true s 1) as [b s1]. destruct Hinv as (Hd & Hr).
  destruct (rerr s1) eqn:He1.
  - cbn [snd]. split; [left; exact He1|]. unfold mu_er. rewrite He1. lia.
  - destruct Hr as [Hr|(_ & Hw1 & Hb1)]; [congruence|].
    assert (Hm1 : mu_er s1 <= mu_er s) by (unfold mu_er; rewrite He, He1; lia).
    destruct (negb (b =? 1)).
    + cbn [snd]. split; [right; exact Hw1|exact Hm1].
    + destruct (trail_loop_ok (S (8 * length (rdata s) + 8)) s1 Hw1 He1) as (A & B). split; [exact A|lia].
Qed.

Lemma er_more_ok s : rok s ->
  rok (snd (er_more s)) /\ mu_er (snd (er_more s)) <= mu_er s /\
  (fst (er_more s) = true -> 0 < mu_er (snd (er_more s))) /\
  (mu_er s = 0 -> fst (er_more s) = false).
Proof.
  intros Hs. unfold er_more, more_rbsp_data. destruct (rerr s) eqn:He.
  { cbn [fst snd]. split; [exact Hs|]. split; [lia|]. split; [discriminate|reflexivity]. }
  assert (Hpos : 0 < mu_er s) by (unfold mu_er; rewrite He; lia).
  destruct (mu_er_read s 1 Hs) as (A1 & A2 & _).
  destruct (read s 1) as [b s1]. cbn [snd] in A1, A2.
  destruct (rerr s1) eqn:He1.
  { cbn [fst snd]. split; [exact A1|]. split; [exact A2|]. split; [discriminate|lia]. }
  destruct (negb (b =? 1)).
  { cbn [fst snd]. split; [exact Hs|]. split; [lia|]. split; [intros _; exact Hpos|lia]. }
  destruct (more_loop _ s1) as [m|]; cbn [fst snd]; (split; [exact Hs|]); (split; [lia|]); (split; [intros _; exact Hpos|lia]).
Qed.

Section Er.
  Variable B : N.

  Lemma e_read : forall s n, inv_er B s ->
    inv_er B (snd (r_read ER s n)) /\ mu_er (snd (r_read ER s n)) <= mu_er s /\
    (1 <= n -> 0 < mu_er s -> mu_er (snd (r_read ER s n)) < mu_er s).
  Proof.
    intros s n [H HB]. cbn [r_read ER]. destruct (mu_er_read s n H) as (A1 & A2 & A3).
    unfold inv_er. repeat split; auto; lia.
  Qed.
  Lemma e_flag : forall s, inv_er B s ->
    inv_er B (snd (r_flag ER s)) /\ mu_er (snd (r_flag ER s)) <= mu_er s /\
    (0 < mu_er s -> mu_er (snd (r_flag ER s)) < mu_er s).
  Proof.
    intros s [H HB]. cbn [r_flag ER]. rewrite snd_read_flag. destruct (mu_er_read s 1 H) as (A1 & A2 & A3).
    unfold inv_er. repeat split; auto; try lia.
  Qed.
  Lemma e_ue : forall s, inv_er B s ->
    inv_er B (snd (r_ue ER s)) /\ mu_er (snd (r_ue ER s)) <= mu_er s /\
    (0 < mu_er s -> mu_er (snd (r_ue ER s)) < mu_er s).
  Proof.
    intros s [H HB]. cbn [r_ue ER]. destruct (mu_er_ue s H) as (A1 & A2 & A3).
    unfold inv_er. repeat split; auto; lia.
  Qed.
  Lemma e_se : forall s, inv_er B s ->
    inv_er B (snd (r_se ER s)) /\ mu_er (snd (r_se ER s)) <= mu_er s /\
    (0 < mu_er s -> mu_er (snd (r_se ER s)) < mu_er s).
  Proof.
    intros s [H HB]. cbn [r_se ER]. rewrite snd_read_se. destruct (mu_er_ue s H) as (A1 & A2 & A3).
    unfold inv_er. repeat split; auto; lia.
  Qed.
  Lemma e_seterr : forall s, inv_er B s -> inv_er B (r_seterr ER s) /\ mu_er (r_seterr ER s) <= mu_er s.
  Proof.
    intros s [H HB]. cbn [r_seterr ER]. unfold inv_er, rok, mu_er, rset_err. cbn [rerr]. repeat split; auto; lia.
  Qed.
  Lemma e_err : forall s, inv_er B s -> (r_err ER s = true <-> mu_er s = 0).
  Proof.
    intros s _. cbn [r_err ER]. unfold mu_er. destruct (rerr s); split; intros; try reflexivity; try lia; discriminate.
  Qed.
  Lemma e_B : forall s, inv_er B s -> mu_er s <= B.
  Proof. intros s [_ H]. exact H. Qed.
  Lemma e_more : forall s, inv_er B s -> inv_er B (snd (r_more ER s)) /\ mu_er (snd (r_more ER s)) <= mu_er s.
  Proof.
    intros s [H HB]. cbn [r_more ER]. destruct (er_more_ok s H) as (A1 & A2 & _). unfold inv_er. repeat split; auto; lia.
  Qed.
  Lemma e_trailing : forall s, inv_er B s ->
    inv_er B (snd (r_trailing ER s)) /\ mu_er (snd (r_trailing ER s)) <= mu_er s.
  Proof.
    intros s [H HB]. cbn [r_trailing ER]. destruct (er_trailing_ok s H) as (A1 & A2). unfold inv_er. repeat split; auto; lia.
  Qed.

  Lemma er_pps fuel spsmap : B < N.of_nat fuel ->
    J (inv_er B) mu_er (pps_lists_ok B) (parse_pps_d ER fuel spsmap).
  Proof.
    exact (J_parse_pps_d ER _ mu_er e_read e_flag e_ue e_se e_seterr e_err B e_B e_more e_trailing fuel spsmap).
  Qed.

  Lemma er_slice fuel spsmap ppsmap : B < N.of_nat fuel ->
    J (inv_er B) mu_er (fun _ => True) (parse_slice_header_d ER fuel spsmap ppsmap).
  Proof. exact (J_parse_slice_header_d ER _ mu_er e_read e_flag e_ue e_se e_seterr e_err B e_B fuel spsmap ppsmap). Qed.
End Er.

Lemma mu_er_init nalu : mu_er (rinit nalu) = 8 * lenN nalu + 1.
Proof. unfold mu_er, rinit, bits_left. cbn [rerr rdata rpos rn]. lia. Qed.

Lemma parse_fuel_enough nalu : 8 * lenN nalu + 1 < N.of_nat (parse_fuel nalu).
Proof. unfold parse_fuel, lenN. lia. Qed.

(* a program verified for the EBSP reader, run on a NAL unit: B is the potential of the start state *)
Lemma er_run {A} (Phi : A -> Prop) (m : @M rstate A) nalu :
  J (inv_er (8 * lenN nalu + 1)) mu_er Phi m ->
  run m (rinit nalu) = Err \/ exists a, run m (rinit nalu) = Ok a /\ Phi a.
Proof.
  intros H. unfold run. destruct (H (rinit nalu)) as [E|(a & s' & E & _ & _ & Hp)]; [|rewrite E; auto|rewrite E; eauto].
  split; [apply rok_init|rewrite mu_er_init; lia].
Qed.

(* ------------------------------------------------------------------ the three entry points *)
Lemma c16_parse_sps_total beyond nalu :
  c16_parse_sps beyond nalu = Err \/ exists a, c16_parse_sps beyond nalu = Ok a /\ sps_lists_ok a.
Proof.
  unfold c16_parse_sps, parse_sps_er, run.
  destruct (parse_sps_any ER beyond (rinit nalu)) as [E|(a & s' & E & H)]; rewrite E; [left; reflexivity|right; eauto].
Qed.

Lemma c16_parse_pps_total spsmap nalu :
  c16_parse_pps spsmap nalu = Err \/
  exists a, c16_parse_pps spsmap nalu = Ok a /\ pps_lists_ok (8 * lenN nalu + 1) a.
Proof. apply er_run, er_pps, parse_fuel_enough. Qed.

Lemma c16_parse_slice_total spsmap ppsmap nalu :
  c16_parse_slice spsmap ppsmap nalu = Err \/ exists a, c16_parse_slice spsmap ppsmap nalu = Ok a.
Proof.
  destruct (er_run (fun _ => True) _ nalu (er_slice _ _ spsmap ppsmap (parse_fuel_enough nalu))) as [E|(a & E & _)];
    [left; exact E|right; eauto].
Qed.

(* ------------------------------------------------------------------ the loops on their own (B := potential of the start state) *)
Section Loops.
  Variables (fuel : nat) (s : rstate).
  Hypotheses (Hs : rok s) (Hf : mu_er s < N.of_nat fuel).

  Let Hi : inv_er (mu_er s) s := conj Hs (N.le_refl _).

  Lemma rplm_loop_er_total st :
    rplm_loop ER fuel st s = Err \/
    exists a s', rplm_loop ER fuel st s = Ok (a, s') /\ rok s' /\ mu_er s' <= mu_er s.
  Proof.
    destruct (rplm_loop_total ER _ mu_er (e_read _) (e_flag _) (e_ue _) (e_se _) (e_seterr _) (e_err _) fuel st s Hi Hf)
      as [E|(a & s' & E & [Hi' _] & Hm & _)]; [left; exact E|right; eauto].
  Qed.

  Lemma mmco_loop_er_total st :
    mmco_loop ER fuel st s = Err \/
    exists a s', mmco_loop ER fuel st s = Ok (a, s') /\ rok s' /\ mu_er s' <= mu_er s.
  Proof.
    destruct (mmco_loop_total ER _ mu_er (e_read _) (e_flag _) (e_ue _) (e_se _) (e_seterr _) (e_err _) fuel st s Hi Hf)
      as [E|(a & s' & E & [Hi' _] & Hm & _)]; [left; exact E|right; eauto].
  Qed.

  Lemma slice_group_id_loop_er_total n w : 1 <= w ->
    rep_break_f ER fuel n (rd ER w) s = Err \/
    exists l s', rep_break_f ER fuel n (rd ER w) s = Ok (l, s') /\ rok s' /\
                 lenN l + mu_er s' <= mu_er s /\ lenN l <= n.
  Proof.
    intros Hw.
    destruct (rep_break_f_total ER _ mu_er (e_read _) (e_flag _) (e_ue _) (e_se _) (e_seterr _) (e_err _)
                (rd ER w) (D_rd ER _ mu_er (e_read _) w Hw) fuel n s Hi Hf)
      as [E|(l & s' & E & [Hi' _] & _ & Hl & Hn)]; [left; exact E|right]. exists l, s'. auto.
  Qed.
End Loops.

(* ------------------------------------------------------------------ avc.GetSliceTypeFromNALU *)
Lemma get_slice_type_total data :
  get_slice_type data = Err \/ exists t, get_slice_type data = Ok t /\ t <= 4.
Proof.
  unfold get_slice_type. destruct (lenZ data <=? 1)%Z eqn:Hl; [left; reflexivity|].
  unfold idx. replace ((0 <=? 0) && (0 <? lenZ data))%bool%Z with true by lia.
  destruct data as [|b0 rest]; [unfold lenZ in Hl; cbn [length] in Hl; lia|].
  cbn [Z.to_nat nth_error rbind].
  destruct (negb _); [left; reflexivity|].
  unfold slice. replace ((0 <=? 1) && (1 <=? lenZ (b0 :: rest)) && (lenZ (b0 :: rest) <=? lenZ (b0 :: rest)))%bool%Z with true by lia.
  cbn [rbind].
  destruct (read_ue (rinit _)) as [x s1]. destruct (read_ue s1) as [st s2].
  destruct (9 <? st) eqn:H9; [left; reflexivity|].
  destruct (rerr s2); [left; reflexivity|]. right. eexists. split; [reflexivity|].
  destruct (5 <=? st) eqn:H5; lia.
Qed.
