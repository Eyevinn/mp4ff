(* C16HevcErProofs.v — the HEVC part of the program logic (C16ParseProofs.v, section HEVC) instantiated for
   ER, the C13 model of bits.EBSPReader: invariant rok /\ potential <= B, potential mu_er = unread bits + 1.
   Results: c16_hparse_sps_total, c16_hparse_pps_total, c16_hparse_slice_total.  No axioms. *)
From V.lib Require Import Base.
From V.c13 Require Import C13Model.
From V.c15 Require Import C15Model C15HevcModel.
From V.c16 Require Import C16Model C16ReaderProofs C16SeiProofs C16ParseModel C16HevcParseModel
  C16ParseProofs C16ParseErProofs C16ReaderMoreProofs.

Section HevcEr.
  Variable B : N.

  Lemma he_more_true : forall s, inv_er B s -> fst (r_more ER s) = true -> 0 < mu_er (snd (r_more ER s)).
  Proof. intros s [H HB]. cbn [r_more ER]. destruct (er_more_ok s H) as (_ & _ & A3 & _). exact A3. Qed.
  Lemma he_more_err : forall s, inv_er B s -> mu_er s = 0 -> fst (r_more ER s) = false.
  Proof. intros s [H HB]. cbn [r_more ER]. destruct (er_more_ok s H) as (_ & _ & _ & A4). exact A4. Qed.
  Lemma he_flag_true : forall s, inv_er B s -> fst (r_flag ER s) = true -> 0 < mu_er (snd (r_flag ER s)).
  Proof.
    intros s _ Ht. cbn [r_flag ER] in *. pose proof (read_flag_true s Ht) as He. unfold mu_er. rewrite He. lia.
  Qed.
  Lemma he_align : forall s, inv_er B s -> 0 < mu_er s -> er_bib s < 8 ->
    0 < mu_er (snd (r_flag ER s)) /\ er_bib s < er_bib (snd (r_flag ER s)) /\ er_bib (snd (r_flag ER s)) <= 8.
  Proof. intros s [H HB] Hp Hb. cbn [r_flag ER]. apply er_align_step; assumption. Qed.

  Ltac hyps := first
    [ exact (e_read B) | exact (e_flag B) | exact (e_ue B) | exact (e_se B) | exact (e_seterr B)
    | exact (e_err B) | exact (e_B B) | exact (e_more B) | exact (e_trailing B) | exact he_more_true
    | exact he_more_err | exact he_flag_true | exact he_align ].

  Lemma er_hsps fuel : B < N.of_nat fuel -> J (inv_er B) mu_er hsps_tight (hparse_sps_d ER fuel).
  Proof. intros Hf. eapply (J_hparse_sps_d ER _ mu_er); try hyps. exact Hf. Qed.

  Lemma er_hpps fuel spsmap : B < N.of_nat fuel -> J (inv_er B) mu_er hpps_wf (hparse_pps_d ER fuel spsmap).
  Proof. intros Hf. eapply (J_hparse_pps_d ER _ mu_er); try hyps. exact Hf. Qed.

  Lemma er_hslice fuel spsmap ppsmap : B < N.of_nat fuel ->
    (forall id sp, spsmap id = Some sp -> hsps_wf sp) ->
    (forall id pp, ppsmap id = Some pp -> hpps_wf pp) ->
    J (inv_er B) mu_er (fun _ => True) (hparse_slice_d ER er_bib fuel spsmap ppsmap).
  Proof. intros Hf H1 H2. eapply (J_hparse_slice_d ER _ mu_er); try hyps; try assumption. Qed.
End HevcEr.

Lemma hevc_fuel_enough nalu : 8 * lenN nalu + 1 < N.of_nat (hevc_fuel nalu).
Proof. unfold hevc_fuel, lenN. lia. Qed.

(* at most 64 short-term reference picture sets, as many as announced, every NumDeltaPocs <= 95 *)
Lemma c16_hparse_sps_tight nalu :
  c16_hparse_sps nalu = Err \/ exists s, c16_hparse_sps nalu = Ok s /\ hsps_tight s.
Proof. apply er_run, er_hsps, hevc_fuel_enough. Qed.

Lemma c16_hparse_sps_total nalu :
  c16_hparse_sps nalu = Err \/ exists s, c16_hparse_sps nalu = Ok s /\ hsps_wf s.
Proof.
  destruct (c16_hparse_sps_tight nalu) as [E|(s & E & H)]; [left; exact E|right].
  exists s. split; [exact E|apply hsps_tight_is_wf, H].
Qed.

(* the same with plain numbers: the constants are the guards of hevc/sps.go (64 sets, 16 + 16 pictures) *)
Lemma c16_hparse_sps_rps_bound nalu s : c16_hparse_sps nalu = Ok s ->
  h_num_st_rps s <= 64 /\ lenN (h_st_rps s) = h_num_st_rps s /\
  Forall (fun r => rps_ndelta r <= 95) (h_st_rps s).
Proof.
  intros E. destruct (c16_hparse_sps_tight nalu) as [E2|(s2 & E2 & H)]; [congruence|].
  assert (s2 = s) by congruence. subst s2. exact H.
Qed.

Lemma c16_hparse_pps_total spsmap nalu :
  c16_hparse_pps spsmap nalu = Err \/ exists p, c16_hparse_pps spsmap nalu = Ok p /\ hpps_wf p.
Proof. apply er_run, er_hpps, hevc_fuel_enough. Qed.

Lemma c16_hparse_slice_total spsmap ppsmap nalu :
  (forall id sp, spsmap id = Some sp -> hsps_wf sp) ->
  (forall id pp, ppsmap id = Some pp -> hpps_wf pp) ->
  c16_hparse_slice spsmap ppsmap nalu = Err \/ exists h, c16_hparse_slice spsmap ppsmap nalu = Ok h.
Proof.
  intros H1 H2.
  destruct (er_run (fun _ => True) _ nalu (er_hslice _ _ spsmap ppsmap (hevc_fuel_enough nalu) H1 H2)) as [E|(a & E & _)];
    [left; exact E|right; eauto].
Qed.

(* ------------------------------------------------------------------ boolean well-formedness, maps from lists *)
Lemma hsps_wfb_ok sp : hsps_wfb sp = true <-> hsps_wf sp.
Proof.
  unfold hsps_wfb, hsps_wf, rps_ok, lenN. rewrite andb_true_iff, forallb_forall, Forall_forall. split.
  - intros [H1 H2]. split; [lia|]. intros r Hr. specialize (H2 r Hr). lia.
  - intros [H1 H2]. split; [lia|]. intros r Hr. specialize (H2 r Hr). lia.
Qed.

Lemma hpps_wfb_ok pp : hpps_wfb pp = true <-> hpps_wf pp.
Proof. unfold hpps_wfb, hpps_wf. lia. Qed.

Lemma hsps_lookup_wf l : Forall hsps_wf l -> forall id sp, hsps_lookup l id = Some sp -> hsps_wf sp.
Proof.
  intros Hl id sp. unfold hsps_lookup.
  assert (G : forall acc, (forall x, acc = Some x -> hsps_wf x) ->
              fold_left (fun acc s => if h_sps_id s =? id then Some s else acc) l acc = Some sp -> hsps_wf sp).
  { induction Hl as [|x t Hx Ht IH]; intros acc Ha; cbn [fold_left]; [apply Ha|].
    apply IH. intros y. destruct (h_sps_id x =? id); [intros Hy; inversion Hy; subst; exact Hx|apply Ha]. }
  apply G. intros x Hx. discriminate Hx.
Qed.

Lemma hpps_lookup_wf l : Forall hpps_wf l -> forall id pp, hpps_lookup l id = Some pp -> hpps_wf pp.
Proof.
  intros Hl id pp. unfold hpps_lookup.
  assert (G : forall acc, (forall x, acc = Some x -> hpps_wf x) ->
              fold_left (fun acc p => if pp_id p =? id then Some p else acc) l acc = Some pp -> hpps_wf pp).
  { induction Hl as [|x t Hx Ht IH]; intros acc Ha; cbn [fold_left]; [apply Ha|].
    apply IH. intros y. destruct (pp_id x =? id); [intros Hy; inversion Hy; subst; exact Hx|apply Ha]. }
  apply G. intros x Hx. discriminate Hx.
Qed.

(* the entry-point lemmas with the boolean predicates *)
Lemma c16_hparse_sps_total_b nalu :
  c16_hparse_sps nalu = Err \/ exists s, c16_hparse_sps nalu = Ok s /\ hsps_wfb s = true.
Proof.
  destruct (c16_hparse_sps_total nalu) as [E|(s & E & H)]; [left; exact E|right].
  exists s. split; [exact E|apply hsps_wfb_ok, H].
Qed.

Lemma c16_hparse_pps_total_b spsmap nalu :
  c16_hparse_pps spsmap nalu = Err \/ exists p, c16_hparse_pps spsmap nalu = Ok p /\ hpps_wfb p = true.
Proof.
  destruct (c16_hparse_pps_total spsmap nalu) as [E|(p & E & H)]; [left; exact E|right].
  exists p. split; [exact E|apply hpps_wfb_ok, H].
Qed.

Lemma c16_hparse_slice_total_b spsmap ppsmap nalu :
  (forall id sp, spsmap id = Some sp -> hsps_wfb sp = true) ->
  (forall id pp, ppsmap id = Some pp -> hpps_wfb pp = true) ->
  c16_hparse_slice spsmap ppsmap nalu = Err \/ exists h, c16_hparse_slice spsmap ppsmap nalu = Ok h.
Proof.
  intros H1 H2. apply c16_hparse_slice_total.
  - intros id sp E. apply hsps_wfb_ok, (H1 id sp E).
  - intros id pp E. apply hpps_wfb_ok, (H2 id pp E).
Qed.

(* the whole pipeline: hostile SPS -> PPS parsed against it -> slice header parsed against both *)
Lemma hevc_ps_and_slice_total cs cp a b rest :
  forallb hsps_wfb cs = true -> forallb hpps_wfb cp = true ->
  hevc_ps_and_slice cs cp a b rest = Err \/ exists h, hevc_ps_and_slice cs cp a b rest = Ok h.
Proof.
  intros Hcs Hcp. unfold hevc_ps_and_slice. cbv zeta.
  assert (Hs : Forall hsps_wf (cs ++ match c16_hparse_sps a with Ok s => [s] | _ => [] end)).
  { apply Forall_app. split.
    - apply Forall_forall. intros x Hx. apply hsps_wfb_ok. rewrite forallb_forall in Hcs. apply Hcs, Hx.
    - destruct (c16_hparse_sps_total a) as [E|(s & E & Hw)]; rewrite E; [constructor|constructor; [exact Hw|constructor]]. }
  set (spss := cs ++ _) in *.
  apply c16_hparse_slice_total.
  - apply hsps_lookup_wf, Hs.
  - apply hpps_lookup_wf. apply Forall_app. split.
    + apply Forall_forall. intros x Hx. apply hpps_wfb_ok. rewrite forallb_forall in Hcp. apply Hcp, Hx.
    + destruct (c16_hparse_pps_total (hsps_has spss) b) as [E|(p & E & Hw)]; rewrite E;
        [constructor|constructor; [exact Hw|constructor]].
Qed.

(* ------------------------------------------------------------------ the other two HEVC pipelines *)
From V.c16 Require Import C16SeiNaluModel C16SeiNaluProofs C16HevcPipeModel.
From V.c16 Require C16ConfRecModel C16ConfRecProofs.

Lemma hevc_sps_and_sei_total a rest :
  hevc_sps_and_sei a rest = Err \/
  exists n miss, hevc_sps_and_sei a rest = Ok (n, miss) /\ 2 * n <= lenN rest.
Proof. unfold hevc_sps_and_sei. apply hevc_parse_sei_nalu_total. Qed.

Lemma parse_hsps_list_wf l : Forall hsps_wf (parse_hsps_list l).
Proof.
  unfold parse_hsps_list. induction l as [|u t IH]; cbn [flat_map]; [constructor|].
  apply Forall_app. split; [|exact IH].
  destruct (c16_hparse_sps_total u) as [E|(s & E & Hw)]; rewrite E; [constructor|constructor; [exact Hw|constructor]].
Qed.

Lemma parse_hpps_list_wf spss : forall l, exists ps, parse_hpps_list spss l = Some ps /\ Forall hpps_wf ps.
Proof.
  induction l as [|u t IH]; cbn [parse_hpps_list].
  - exists []. split; [reflexivity|constructor].
  - destruct IH as (ps & E & Hps). rewrite E. eexists. split; [reflexivity|].
    apply Forall_app. split; [|exact Hps].
    destruct (c16_hparse_pps_total (hsps_has spss) u) as [E2|(p & E2 & Hw)]; rewrite E2;
      [constructor|constructor; [exact Hw|constructor]].
Qed.

Lemma hevc_confrec_and_slice_total recb rest :
  hevc_confrec_and_slice recb rest = Err \/ exists h, hevc_confrec_and_slice recb rest = Ok h.
Proof.
  unfold hevc_confrec_and_slice.
  destruct (C16ConfRecProofs.hevc_confrec_total recb) as [E|(r & t & E & _)]; rewrite E; [left; reflexivity|].
  cbv zeta.
  destruct (parse_hpps_list_wf (parse_hsps_list (hevc_rec_nalus r 33)) (hevc_rec_nalus r 34)) as (ppss & Ep & Hps).
  rewrite Ep. apply c16_hparse_slice_total.
  - apply hsps_lookup_wf, parse_hsps_list_wf.
  - apply hpps_lookup_wf. exact Hps.
Qed.
