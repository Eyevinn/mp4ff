(* C16ReaderMoreProofs.v — what the HEVC slice parser needs of the EBSP reader model beyond C16ParseErProofs.v:
   ReadFlag returning true, and NrBitsReadInCurrentByte (er_bib) for byte_alignment.  No axioms. *)
From V.lib Require Import Base.
From V.c13 Require Import C13Model.
From V.c15 Require Import C15Model C15HevcModel.
From V.c16 Require Import C16Model C16ReaderProofs C16SeiProofs C16ParseModel C16ParseProofs C16ParseErProofs.

(* ReadFlag = true means the read succeeded *)
Lemma read_flag_true s : fst (read_flag s) = true -> rerr (snd (read_flag s)) = false.
Proof.
  unfold read_flag. pose proof (read_err_zero s 1) as H. destruct (read s 1) as [v s1]. cbn [fst snd] in *.
  destruct (rerr s1); [|reflexivity]. rewrite (H eq_refl). discriminate.
Qed.

(* byte_alignment(): while bits are pending in the current byte (er_bib < 8, i.e. rn > 0) a flag read
   needs no new byte: it cannot fail and moves one bit closer to the boundary *)
Lemma er_align_step s : rok s -> 0 < mu_er s -> er_bib s < 8 ->
  0 < mu_er (snd (read_flag s)) /\ er_bib s < er_bib (snd (read_flag s)) /\ er_bib (snd (read_flag s)) <= 8.
Proof.
  intros Hs Hp Hb. unfold mu_er in Hp. destruct (rerr s) eqn:He; [lia|].
  destruct Hs as [Hs|[Hpos Hn]]; [congruence|]. unfold er_bib in *.
  unfold read_flag, read, read_gen. rewrite He, fill_enough, He by lia. cbn [snd rn rerr].
  unfold mu_er. cbn [rerr]. lia.
Qed.
