(* C16ParseProofs.v — a small program logic for the state-monad parsers of C15Model.v / C16ParseModel.v.

   J Φ m : from every reader state satisfying the invariant, `m` returns Err or Ok (a, s') — never
           Panic, never OutOfFuel — with the invariant kept, the potential `mu` not increased, and Φ a.
   The logic is generic in (inv, mu).  Two instances are used:
     trivial  inv = True, mu = 0      : programs without data-driven loops are total from ANY state of
                                        ANY reader (ParseSPSNALUnit);
     ER       inv = rok, mu = unread bits + 1 (0 after the sticky error), C16ParseErProofs.v:
                                        the data-driven loops end within `mu` iterations.
   A parser is verified by walking its text: `jauto` applies one rule per construct (bind, if, match, the counted
   loops) and takes the parsers and loops already verified from the hint database `jdb`.
   No axioms. *)
From V.lib Require Import Base.
From V.c13 Require Import C13Model.
From V.c15 Require Import C15Model C15HevcModel.
From V.c16 Require Import C16ParseModel C16HevcParseModel.

Notation "x <- m ;; k" := (bind m (fun x => k))
  (at level 61, m at next level, right associativity).

Create HintDb jdb.

Lemma u8_lt x : u8 x < 256. Proof. unfold u8. apply N.mod_lt. discriminate. Qed.
Lemma u16_lt x : u16 x < 65536. Proof. unfold u16. apply N.mod_lt. discriminate. Qed.
Lemma u8_le x : u8 x <= x. Proof. unfold u8. apply N.mod_le. discriminate. Qed.

(* bounds of counts that are uint8 / uint16 values or picked by a condition *)
Ltac bnd :=
  unfold loop_bound;
  repeat match goal with
    | |- context [u8 ?x] => lazymatch goal with H : u8 x < 256 |- _ => fail | _ => pose proof (u8_lt x) end
    | |- context [u16 ?x] => lazymatch goal with H : u16 x < 65536 |- _ => fail | _ => pose proof (u16_lt x) end
    end;
  repeat match goal with |- context [if ?c then _ else _] => destruct c end;
  lia.

(* NumDeltaPocs is a uint8 and the loop over an inter-predicted set is `for j := byte(0); j <= numDeltaPocs; j++`,
   which does not terminate for 255 (the model's rep_n (NumDeltaPocs + 1) is that loop for <= 254 only): the
   bound that matters is 254.  An inter-predicted set has at most one entry more than its reference, an explicit
   one at most 16 + 16: after k sets every NumDeltaPocs is <= 31 + k, and the guard num_short_term_ref_pic_sets
   <= 64 keeps that at <= 95. *)
Definition rps_le (K : N) (r : hrps) : Prop := rps_ndelta r <= K.
Definition rps_ok (r : hrps) : Prop := rps_ndelta r <= 254.

Lemma rps_le_mono K K' : K <= K' -> forall r, rps_le K r -> rps_le K' r.
Proof. unfold rps_le. lia. Qed.

(* what the slice-header parser needs of an SPS: the st_ref_pic_set list has (at least) the announced
   number of entries (so ShortTermRefPicSets[idx - deltaIdx] is in range) and every NumDeltaPocs is a uint8 *)
Definition hsps_wf (sp : hsps) : Prop :=
  (N.to_nat (h_num_st_rps sp) <= length (h_st_rps sp))%nat /\ Forall rps_ok (h_st_rps sp).
(* what ParseSPSNALUnit itself guarantees: at most 64 sets, every NumDeltaPocs <= 95 *)
Definition hsps_tight (sp : hsps) : Prop :=
  h_num_st_rps sp <= 64 /\ lenN (h_st_rps sp) = h_num_st_rps sp /\ Forall (rps_le 95) (h_st_rps sp).

Lemma hsps_tight_is_wf sp : hsps_tight sp -> hsps_wf sp.
Proof.
  intros (H1 & H2 & H3). split; [unfold lenN in H2; lia|].
  eapply Forall_impl; [|exact H3]. apply (rps_le_mono 95 254). lia.
Qed.

Section Logic.
  Context {St : Type} (R : reader St) (inv : St -> Prop) (mu : St -> N).

  (* the outcome of a run from s: an error, or a value and a state that keeps the invariant, has no more
     potential than s, and satisfies Q *)
  Definition fine {A} (s : St) (Q : A -> St -> Prop) (r : res (A * St)) : Prop :=
    r = Err \/ exists a s', r = Ok (a, s') /\ inv s' /\ mu s' <= mu s /\ Q a s'.

  (* forall s, inv s -> fine s (fun a _ => Phi a) (m s) *)
  Definition J {A} (Phi : A -> Prop) (m : @M St A) : Prop :=
    forall s, inv s ->
      m s = Err \/ exists a s', m s = Ok (a, s') /\ inv s' /\ mu s' <= mu s /\ Phi a.

  (* strict version: from a state with positive potential the potential decreases *)
  Definition D {A} (m : @M St A) : Prop :=
    forall s, inv s -> fine s (fun _ s' => 0 < mu s -> mu s' < mu s) (m s).

  (* weakly decreasing: if the program ends without error it has consumed potential *)
  Definition Dw {A} (m : @M St A) : Prop :=
    forall s, inv s ->
      m s = Err \/ exists a s', m s = Ok (a, s') /\ inv s' /\ mu s' <= mu s /\ (0 < mu s' -> mu s' < mu s).

  (* like J, but the program may also give up with OutOfFuel *)
  Definition JO {A} (Phi : A -> Prop) (m : @M St A) : Prop :=
    forall s, inv s ->
      m s = Err \/ m s = OutOfFuel \/ exists a s', m s = Ok (a, s') /\ inv s' /\ mu s' <= mu s /\ Phi a.

  (* ---- outcomes *)
  Lemma fine_weaken {A} s (Q Q' : A -> St -> Prop) r :
    fine s Q r -> (forall a s', mu s' <= mu s -> Q a s' -> Q' a s') -> fine s Q' r.
  Proof. intros [E|(a & s' & E & Hi & Hm & Hq)] H; [left; exact E|right]. exists a, s'. auto. Qed.

  (* the continuation is judged from the intermediate state, for a Q' that may speak of s *)
  Lemma fine_bind {A C} s (Q : A -> St -> Prop) (Q' : C -> St -> Prop) (m : @M St A) (k : A -> @M St C) :
    fine s Q (m s) -> (forall a s1, inv s1 -> mu s1 <= mu s -> Q a s1 -> fine s1 Q' (k a s1)) ->
    fine s Q' (bind m k s).
  Proof.
    intros [E|(a & s1 & E & Hi & Hm & Hq)] Hk; unfold bind; rewrite E; [left; reflexivity|].
    destruct (Hk a s1 Hi Hm Hq) as [E2|(c & s2 & E2 & Hi2 & Hm2 & Hq2)]; [left; exact E2|right].
    exists c, s2. repeat split; auto. lia.
  Qed.

  Lemma fine_ret {A} s (Q : A -> St -> Prop) a : inv s -> Q a s -> fine s Q (ret a s).
  Proof. intros Hs Hq. right. exists a, s. repeat split; auto. lia. Qed.

  Lemma bind_get_err {B} (k : bool -> @M St B) s : bind (get_err R) k s = k (r_err R s) s.
  Proof. reflexivity. Qed.
  Lemma bind_ok {A B} (m : @M St A) (k : A -> @M St B) s a s' : m s = Ok (a, s') -> bind m k s = k a s'.
  Proof. intros E. unfold bind. rewrite E. reflexivity. Qed.
  Lemma bind_err {A B} (m : @M St A) (k : A -> @M St B) s : m s = Err -> bind m k s = Err.
  Proof. intros E. unfold bind. rewrite E. reflexivity. Qed.

  (* ---- structural rules *)
  Lemma J_ret {A} (Phi : A -> Prop) (a : A) : Phi a -> J Phi (ret a).
  Proof. intros H s Hs. apply fine_ret; assumption. Qed.

  Lemma J_fail {A} (Phi : A -> Prop) : J Phi (@fail St A).
  Proof. intros s Hs. left. reflexivity. Qed.

  Lemma J_weaken {A} (Phi Psi : A -> Prop) m : J Phi m -> (forall a, Phi a -> Psi a) -> J Psi m.
  Proof. intros H HW s Hs. apply (fine_weaken s _ _ _ (H s Hs)). auto. Qed.

  Lemma J_true {A} (Phi : A -> Prop) m : J Phi m -> J (fun _ => True) m.
  Proof. intros H. apply (J_weaken Phi); auto. Qed.

  Lemma J_bind {A B} (Phi : A -> Prop) (Psi : B -> Prop) (m : @M St A) (k : A -> @M St B) :
    J Phi m -> (forall a, Phi a -> J Psi (k a)) -> J Psi (bind m k).
  Proof. intros Hm Hk s Hs. apply (fine_bind s _ _ _ _ (Hm s Hs)). intros a s1 Hi _ Hp. exact (Hk a Hp s1 Hi). Qed.

  Lemma J_bind_true {A B} (Psi : B -> Prop) (m : @M St A) (k : A -> @M St B) :
    J (fun _ => True) m -> (forall a, J Psi (k a)) -> J Psi (bind m k).
  Proof. intros Hm Hk. apply (J_bind (fun _ => True)); auto. Qed.

  Lemma D_Dw {A} (m : @M St A) : D m -> Dw m.
  Proof. intros H s Hs. apply (fine_weaken s _ _ _ (H s Hs)). cbv beta. intros; lia. Qed.
  Lemma Dw_J {A} (m : @M St A) : Dw m -> J (fun _ => True) m.
  Proof. intros H s Hs. apply (fine_weaken s _ _ _ (H s Hs)). auto. Qed.
  Lemma D_J {A} (m : @M St A) : D m -> J (fun _ => True) m.
  Proof. intros H. apply Dw_J, D_Dw, H. Qed.

  Lemma D_bind {A B} (m : @M St A) (k : A -> @M St B) :
    D m -> (forall a, J (fun _ => True) (k a)) -> D (bind m k).
  Proof.
    intros Hm Hk s Hs. apply (fine_bind s _ _ _ _ (Hm s Hs)). intros a s1 Hi _ Hd.
    apply (fine_weaken s1 _ _ _ (Hk a s1 Hi)). cbv beta in *. intros; lia.
  Qed.
  Lemma Dw_bind_l {A C} (m : @M St A) (k : A -> @M St C) :
    Dw m -> (forall a, J (fun _ => True) (k a)) -> Dw (bind m k).
  Proof.
    intros Hm Hk s Hs. apply (fine_bind s _ _ _ _ (Hm s Hs)). intros a s1 Hi _ Hd.
    apply (fine_weaken s1 _ _ _ (Hk a s1 Hi)). cbv beta in *. intros; lia.
  Qed.

  Lemma J_JO {A} (Phi : A -> Prop) m : J Phi m -> JO Phi m.
  Proof. intros H s Hs. destruct (H s Hs) as [E|E]; [left; exact E|right; right; exact E]. Qed.
  Lemma JO_oof {A} (Phi : A -> Prop) : JO Phi (@out_of_fuel St A).
  Proof. intros s Hs. right. left. reflexivity. Qed.

  (* a reader operation as a program *)
  Lemma D_prim {A} (f : St -> A * St) :
    (forall s, inv s -> inv (snd (f s)) /\ mu (snd (f s)) <= mu s /\ (0 < mu s -> mu (snd (f s)) < mu s)) ->
    D (fun s => Ok (f s)).
  Proof. intros H s Hs. right. destruct (H s Hs) as (A1 & A2 & A3). destruct (f s) as [v s']. exists v, s'. auto. Qed.
  Lemma J_prim {A} (f : St -> A * St) :
    (forall s, inv s -> inv (snd (f s)) /\ mu (snd (f s)) <= mu s) -> J (fun _ => True) (fun s => Ok (f s)).
  Proof. intros H s Hs. right. destruct (H s Hs) as (A1 & A2). destruct (f s) as [v s']. exists v, s'. auto. Qed.

  (* ---- count-bounded loops: exactly n iterations, n elements *)
  Lemma J_rep {A} (Phi : A -> Prop) (body : @M St A) : J Phi body ->
    forall n, J (fun l => length l = n /\ Forall Phi l) (rep n body).
  Proof.
    intros Hb. induction n as [|n IH]; cbn [rep].
    - apply J_ret. split; [reflexivity|constructor].
    - eapply J_bind; [exact Hb|]. intros x Hx.
      eapply J_bind; [exact IH|]. intros t [Ht Hf].
      apply J_ret. cbn [length]. split; [lia|constructor; assumption].
  Qed.

  Lemma J_rep_n {A} (Phi : A -> Prop) (body : @M St A) n : n <= loop_bound -> J Phi body ->
    J (fun l => lenN l = n /\ Forall Phi l) (rep_n n body).
  Proof.
    intros Hn Hb. unfold rep_n. replace (n <=? loop_bound) with true by lia.
    eapply J_weaken; [apply (J_rep Phi body Hb)|]. intros l [Hl Hf]. split; [unfold lenN; lia|exact Hf].
  Qed.

  Lemma J_mapM {A C} (f : A -> @M St C) : (forall a, J (fun _ => True) (f a)) ->
    forall l, J (fun r => length r = length l) (mapM f l).
  Proof.
    intros Hf. induction l as [|a t IH]; cbn [mapM].
    - apply J_ret. reflexivity.
    - eapply J_bind_true; [apply Hf|]. intros b. eapply J_bind; [apply IH|]. intros bs Hb. cbv beta in Hb.
      apply J_ret. cbn [length]. lia.
  Qed.

  (* ---- walking a program.  One rule per construct; what is not a construct (a reader operation, a parser or loop
     verified earlier, a bound) is looked up in jdb.  Lemmas with a postcondition serve where none is asked. *)
  Ltac jstep :=
    lazymatch goal with
    | |- J _ (bind _ _) => eapply J_bind_true; [ | intro ]
    | |- J _ (ret _) => apply J_ret; try exact I
    | |- J _ fail => apply J_fail
    | |- J _ (if ?c then _ else _) => destruct c eqn:?
    | |- J _ (match ?x with Some _ => _ | None => _ end) => destruct x eqn:?
    | |- J _ (match ?p with pair _ _ => _ end) => destruct p
    | |- J _ (let _ := _ in _) => cbv zeta
    | |- J _ (rep_n _ _) => eapply J_true; apply (J_rep_n (fun _ => True)); [bnd | ]
    | |- J _ (rep _ _) => eapply J_true; apply (J_rep (fun _ => True))
    | |- J _ (mapM _ _) => eapply J_true; apply J_mapM; intro
    | |- Dw (bind _ _) => apply Dw_bind_l; [ | intro ]
    | |- J _ _ => first [ solve [auto with jdb] | eapply J_true; solve [auto with jdb] ]
    | |- Dw _ => solve [auto with jdb]
    end.
  Ltac jauto := repeat jstep.

  (* steps through binds with trivial postconditions up to (not including) a bind whose first program matches `stop` *)
  Ltac jupto stop :=
    repeat (lazymatch goal with
            | |- J _ (bind ?m _) =>
                lazymatch m with
                | context [stop] => fail
                | _ => eapply J_bind_true; [jauto|]; intro
                end
            | |- J _ (let _ := _ in _) => cbv zeta
            | |- J _ (match ?p with pair _ _ => _ end) => destruct p
            | |- J _ (if ?c then fail else _) => destruct c eqn:?; [apply J_fail|]
            end).

  (* ---- what the reader must satisfy *)
  Hypothesis H_read : forall s n, inv s ->
    inv (snd (r_read R s n)) /\ mu (snd (r_read R s n)) <= mu s /\
    (1 <= n -> 0 < mu s -> mu (snd (r_read R s n)) < mu s).
  Hypothesis H_flag : forall s, inv s ->
    inv (snd (r_flag R s)) /\ mu (snd (r_flag R s)) <= mu s /\ (0 < mu s -> mu (snd (r_flag R s)) < mu s).
  Hypothesis H_ue : forall s, inv s ->
    inv (snd (r_ue R s)) /\ mu (snd (r_ue R s)) <= mu s /\ (0 < mu s -> mu (snd (r_ue R s)) < mu s).
  Hypothesis H_se : forall s, inv s ->
    inv (snd (r_se R s)) /\ mu (snd (r_se R s)) <= mu s /\ (0 < mu s -> mu (snd (r_se R s)) < mu s).
  Hypothesis H_seterr : forall s, inv s -> inv (r_seterr R s) /\ mu (r_seterr R s) <= mu s.

  Lemma D_rd n : 1 <= n -> D (rd R n).
  Proof.
    intros Hn. apply (D_prim (fun s => r_read R s n)). intros s Hs. destruct (H_read s n Hs) as (A1 & A2 & A3). auto.
  Qed.
  Lemma J_rd n : J (fun _ => True) (rd R n).
  Proof. apply (J_prim (fun s => r_read R s n)). intros s Hs. destruct (H_read s n Hs) as (A1 & A2 & _). auto. Qed.
  Definition D_flag : D (rd_flag R) := D_prim _ H_flag.
  Definition D_ue : D (rd_ue R) := D_prim _ H_ue.
  Definition D_se : D (rd_se R) := D_prim _ H_se.
  Definition J_flag := D_J _ D_flag.
  Definition J_ue := D_J _ D_ue.
  Definition J_se := D_J _ D_se.
  Definition J_set_err : J (fun _ => True) (set_err R) := J_prim (fun s => (tt, r_seterr R s)) H_seterr.
  Lemma J_get_err : J (fun _ => True) (get_err R).
  Proof. intros s Hs. apply fine_ret; auto. Qed.
  Lemma J_get_nbytes : J (fun _ => True) (get_nbytes R).
  Proof. intros s Hs. apply fine_ret; auto. Qed.

  Local Hint Resolve J_rd J_flag J_ue J_se J_set_err J_get_err J_get_nbytes D_Dw D_flag D_ue D_se : jdb.
  Local Hint Extern 1 (D (rd _ _)) => (apply D_rd; bnd) : jdb.
  Local Hint Extern 1 (_ <= _) => bnd : jdb.

  (* ================================================================== avc.ParseSPSNALUnit *)
  Lemma J_read_scaling_list : forall n last next,
    J (fun l => length l = n) (read_scaling_list R n last next).
  Proof.
    induction n as [|n IH]; intros last next; cbn [read_scaling_list].
    - apply J_ret. reflexivity.
    - eapply J_bind_true; [jauto|]. intros next'.
      eapply J_bind; [apply IH|]. intros t Ht. cbv beta in Ht. apply J_ret. cbn [length]. lia.
  Qed.

  Definition scaling_ok (l : list (option (list Z))) : Prop :=
    Forall (fun o => match o with Some x => (length x <= 64)%nat | None => True end) l.

  Lemma J_read_scaling_lists : forall cnt i,
    J (fun l => length l = cnt /\ scaling_ok l) (read_scaling_lists R cnt i).
  Proof.
    induction cnt as [|c IH]; intros i; cbn [read_scaling_lists].
    - apply J_ret. split; [reflexivity|constructor].
    - eapply J_bind_true; [apply J_flag|]. intros present.
      eapply (J_bind (fun o => match o with Some x => (length x <= 64)%nat | None => True end)).
      + destruct present; [|jauto].
        eapply J_bind; [apply J_read_scaling_list|]. intros l Hl. cbv beta in Hl. apply J_ret.
        destruct (i <? 6); lia.
      + intros x Hx. eapply J_bind; [apply IH|]. intros t [Ht Hf]. apply J_ret.
        cbn [length]. split; [lia|constructor; assumption].
  Qed.

  Definition hrd_ok (o : option hrd) : Prop :=
    match o with Some h => lenN (hrd_entries h) <= 32 | None => True end.

  Lemma J_parse_hrd : J (fun h => lenN (hrd_entries h) <= 32) (parse_hrd R).
  Proof.
    unfold parse_hrd, parse_cpb_entry. eapply J_bind_true; [apply J_ue|]. intros cnt.
    destruct (31 <? cnt) eqn:Hc; [jauto; cbn [hrd_entries]; rewrite lenN_nil; lia|].
    jupto (@rep_n).
    eapply J_bind; [apply (J_rep_n (fun _ => True) _ (cnt + 1)); [bnd|jauto]|].
    intros entries [Hl _]. jauto. cbn [hrd_entries]. lia.
  Qed.

  Definition vui_ok (o : option vui) : Prop :=
    match o with Some v => hrd_ok (vui_nal_hrd v) /\ hrd_ok (vui_vcl_hrd v) | None => True end.

  Lemma J_opt_hrd (c : bool) :
    J hrd_ok (if c then bind (parse_hrd R) (fun h => ret (Some h)) else ret None).
  Proof.
    destruct c; [|jauto].
    eapply J_bind; [apply J_parse_hrd|]. intros h Hh. apply J_ret. exact Hh.
  Qed.

  Lemma J_parse_vui beyond : J (fun v => hrd_ok (vui_nal_hrd v) /\ hrd_ok (vui_vcl_hrd v)) (parse_vui R beyond).
  Proof.
    unfold parse_vui.
    eapply J_bind_true; [jauto|]. intros arp.
    eapply J_bind_true; [jauto|]. intros sar.
    destruct (negb beyond); [apply J_ret; cbn [vui_nal_hrd vui_vcl_hrd]; split; exact I|].
    jupto (@parse_hrd).
    eapply J_bind; [apply J_opt_hrd|]. intros nh Hnh.
    eapply J_bind_true; [apply J_flag|]. intros vhp.
    eapply J_bind; [apply J_opt_hrd|]. intros vh Hvh.
    jauto. cbn [vui_nal_hrd vui_vcl_hrd]. split; assumption.
  Qed.

  Definition lists_ok (l : list (option (list Z))) : Prop := (length l <= 12)%nat /\ scaling_ok l.

  Lemma lists_ok_nil : lists_ok [].
  Proof. split; [cbn [length]; lia|constructor]. Qed.

  Lemma J_parse_sps_high profile :
    J (fun t => lists_ok (snd t)) (parse_sps_high R profile).
  Proof.
    unfold parse_sps_high. destruct (is_high_profile profile); [|apply J_ret, lists_ok_nil].
    eapply J_bind_true; [apply J_ue|]. intros cf.
    jupto (@read_scaling_lists).
    eapply (J_bind lists_ok); [|intros lists Hl; apply J_ret; exact Hl].
    match goal with |- J _ (if ?c then _ else _) => destruct c end; [|apply J_ret, lists_ok_nil].
    eapply J_weaken; [apply J_read_scaling_lists|]. intros l [Hl Hs]. split; [|exact Hs].
    destruct (negb (u8 cf =? 3)); lia.
  Qed.

  Lemma J_parse_sps_poc t : J (fun r => lenN (snd r) <= 255) (parse_sps_poc R t).
  Proof.
    unfold parse_sps_poc. destruct (t =? 0).
    { eapply J_bind_true; [apply J_ue|]. intros l. destruct (12 <? l); [apply J_fail|].
      apply J_ret. cbn [snd]. rewrite lenN_nil. lia. }
    destruct (t =? 1); [|apply J_ret; cbn [snd]; rewrite lenN_nil; lia].
    jupto (@rep_n).
    match goal with |- J _ (bind (rep_n ?n _) _) =>
      eapply J_bind; [apply (J_rep_n (fun _ => True) (rd_ue R) n); [bnd|apply J_ue]|] end.
    intros cyc [Hl _]. apply J_ret. cbn [snd]. lia.
  Qed.

  Lemma J_parse_sps_crop chroma fmo w h crop : J (fun _ => True) (parse_sps_crop R chroma fmo w h crop).
  Proof. unfold parse_sps_crop. jauto. Qed.

  (* sizes of everything ParseSPSNALUnit builds: constants *)
  Definition sps_lists_ok (s : sps) : Prop :=
    lenN (sps_ref_frames_in_poc_cycle s) <= 255 /\ lists_ok (sps_seq_scaling_lists s) /\ vui_ok (sps_vui s).

  Local Hint Resolve J_parse_sps_crop : jdb.

  Lemma J_parse_sps_data beyond : J sps_lists_ok (parse_sps_data R beyond).
  Proof.
    unfold parse_sps_data.
    jupto (@parse_sps_high).
    eapply J_bind; [apply J_parse_sps_high|]. intros hp Hhp.
    destruct hp as [[[[[[chroma sep] bdl] bdc] qpp] smp] lists]. cbn [snd] in Hhp.
    jupto (@parse_sps_poc).
    eapply J_bind; [apply J_parse_sps_poc|]. intros poc Hpoc.
    destruct poc as [[[[l2poc dz] o1] o2] cyc]. cbn [snd] in Hpoc.
    jupto (@parse_vui).
    eapply (J_bind vui_ok).
    { match goal with |- J _ (if ?c then _ else _) => destruct c end; [|jauto].
      eapply J_bind; [apply J_parse_vui|]. intros x Hx. apply J_ret. exact Hx. }
    intros v Hv. jauto.
    unfold sps_lists_ok. cbn [sps_ref_frames_in_poc_cycle sps_seq_scaling_lists sps_vui]. auto.
  Qed.

  Lemma J_parse_sps beyond : J sps_lists_ok (parse_sps R beyond).
  Proof.
    unfold parse_sps. eapply J_bind_true; [apply J_rd|]. intros hdr.
    destruct (negb (N.land (u8 hdr) 31 =? 7)); [apply J_fail|apply J_parse_sps_data].
  Qed.

  Lemma J_parse_pps_tail spsmap spsid :
    J (fun t => lists_ok (snd (fst t))) (parse_pps_tail R spsmap spsid).
  Proof.
    unfold parse_pps_tail.
    eapply J_bind_true; [apply J_flag|]. intros t8.
    eapply J_bind_true; [apply J_flag|]. intros spf.
    eapply (J_bind lists_ok); [|intros lists Hl; jauto; exact Hl].
    destruct spf; [|apply J_ret, lists_ok_nil].
    destruct (spsmap spsid) as [chroma|]; [|apply J_fail].
    eapply J_weaken; [apply J_read_scaling_lists|]. intros l [Hl Hs]. split; [|exact Hs].
    destruct t8; [destruct (negb (chroma =? 3))|]; lia.
  Qed.

  Lemma D_pwt_entry cat : D (pwt_entry R cat).
  Proof. unfold pwt_entry. apply D_bind; [apply D_flag|]. intros lw. jauto. Qed.

  (* ---- from here on: the error flag is the zero potential (used by the loops that test AccError) *)
  Hypothesis H_err : forall s, inv s -> (r_err R s = true <-> mu s = 0).

  Lemma mu_pos_of_no_err s : inv s -> r_err R s = false -> 0 < mu s.
  Proof.
    intros Hs He. destruct (N.eq_dec (mu s) 0) as [Hz|Hz]; [|lia]. apply (H_err s Hs) in Hz. congruence.
  Qed.

  (* ---- loops on fuel.  An iteration that goes on has consumed potential, so a loop started with potential below
     its fuel never exhausts it.
       Jf f m : m is fine from the states with potential below f;
       Jz f m : and from the states without potential (the error is set) as well: where a loop body stands after a
                step that consumed potential from below S f, up to its `if AccError() != nil` test. *)
  Definition Jf (f : nat) {A} (m : @M St A) : Prop :=
    forall s, inv s -> mu s < N.of_nat f -> fine s (fun _ _ => True) (m s).
  Definition Jz (f : nat) {A} (m : @M St A) : Prop :=
    forall s, inv s -> (0 < mu s -> mu s < N.of_nat f) -> fine s (fun _ _ => True) (m s).

  Lemma Jf_0 {A} (m : @M St A) : Jf 0 m.
  Proof. intros s _ H. lia. Qed.
  Lemma Jf_J f {A} (m : @M St A) : J (fun _ => True) m -> Jf f m.
  Proof. intros H s Hs _. exact (H s Hs). Qed.
  Lemma Jz_J f {A} (m : @M St A) : J (fun _ => True) m -> Jz f m.
  Proof. intros H s Hs _. exact (H s Hs). Qed.
  Lemma Jf_pre f {A C} (m : @M St A) (k : A -> @M St C) :
    J (fun _ => True) m -> (forall a, Jf f (k a)) -> Jf f (bind m k).
  Proof. intros Hm Hk s Hs Hf. apply (fine_bind s _ _ _ _ (Hm s Hs)). intros a s1 Hi Hmu _. apply Hk; [exact Hi|lia]. Qed.
  Lemma Jf_bind f {A C} (m : @M St A) (k : A -> @M St C) :
    Jf f m -> (forall a, J (fun _ => True) (k a)) -> Jf f (bind m k).
  Proof. intros Hm Hk s Hs Hf. apply (fine_bind s _ _ _ _ (Hm s Hs Hf)). intros a s1 Hi _ _. exact (Hk a s1 Hi). Qed.
  Lemma Jf_step f {A C} (m : @M St A) (k : A -> @M St C) :
    Dw m -> (forall a, Jz f (k a)) -> Jf (S f) (bind m k).
  Proof.
    intros Hm Hk s Hs Hf. apply (fine_bind s _ _ _ _ (Hm s Hs)). intros a s1 Hi Hmu Hd.
    apply Hk; [exact Hi|]. cbv beta in Hd. lia.
  Qed.
  Lemma Jz_bind f {A C} (m : @M St A) (k : A -> @M St C) :
    J (fun _ => True) m -> (forall a, Jz f (k a)) -> Jz f (bind m k).
  Proof. intros Hm Hk s Hs Hf. apply (fine_bind s _ _ _ _ (Hm s Hs)). intros a s1 Hi Hmu _. apply Hk; [exact Hi|lia]. Qed.
  (* `e <- get_err ;; if e then ret a else loop`: the loop is entered only without error, i.e. with positive potential *)
  Lemma Jz_err_test f {A} (a : A) (loop : @M St A) :
    Jf f loop -> Jz f (bind (get_err R) (fun e => if e then ret a else loop)).
  Proof.
    intros Hl s Hs Hf. rewrite bind_get_err. destruct (r_err R s) eqn:He; [apply fine_ret; auto|].
    apply Hl; [exact Hs|]. apply Hf, mu_pos_of_no_err; assumption.
  Qed.

  (* walks a loop body behind its first, potential-consuming step; IH is the loop with one unit of fuel less *)
  Ltac fstep IH :=
    lazymatch goal with
    | |- Jz _ (if ?c then _ else _) => destruct c
    | |- Jz _ (match ?p with pair _ _ => _ end) => destruct p
    | |- Jz _ (let _ := _ in _) => cbv zeta
    | |- Jz _ (bind (get_err R) _) => apply Jz_err_test, IH
    | |- Jz _ (bind _ _) => apply Jz_bind; [jauto|intro]
    | |- Jz _ _ => apply Jz_J; jauto
    end.

  (* ---- the `for { ... }` loop of ref_pic_list_modification *)
  Lemma rplm_loop_total : forall fuel st, Jf fuel (rplm_loop R fuel st).
  Proof.
    induction fuel as [|f IH]; intros st; [apply Jf_0|].
    cbn [rplm_loop]. destruct st as [[[i0 ad] lt] av].
    apply Jf_step; [auto with jdb|]. intros idc0. repeat fstep IH.
  Qed.

  (* ---- the `for { ... }` loop of dec_ref_pic_marking *)
  Lemma mmco_loop_total : forall fuel st, Jf fuel (mmco_loop R fuel st).
  Proof.
    induction fuel as [|f IH]; intros st; [apply Jf_0|].
    cbn [mmco_loop]. destruct st as [[[df lt] fi] mx].
    apply Jf_step; [auto with jdb|]. intros op. repeat fstep IH.
  Qed.

  (* ---- the data-driven loop `for i < n { if AccError != nil { break }; body }`: with a body that
     consumes potential, at most mu(s) iterations, so fuel > mu(s) is never exhausted *)
  Lemma rep_break_f_total {A} (body : @M St A) : D body ->
    forall fuel n s, inv s -> mu s < N.of_nat fuel ->
      fine s (fun l s' => lenN l + mu s' <= mu s /\ lenN l <= n) (rep_break_f R fuel n body s).
  Proof.
    intros Hb. induction fuel as [|f IH]; intros n s Hs Hf; [lia|].
    cbn [rep_break_f]. destruct (n =? 0) eqn:Hn0; [apply fine_ret; [exact Hs|rewrite lenN_nil; lia]|].
    rewrite bind_get_err. destruct (r_err R s) eqn:He; [apply fine_ret; [exact Hs|rewrite lenN_nil; lia]|].
    pose proof (mu_pos_of_no_err s Hs He) as Hpos.
    apply (fine_bind s _ _ _ _ (Hb s Hs)). intros x s1 Hi1 Hm1 Hd1. cbv beta in Hd1.
    apply (fine_bind s1 _ _ _ _ (IH (n - 1) s1 Hi1 ltac:(lia))). intros t s2 Hi2 Hm2 [Hl Hn].
    apply fine_ret; [exact Hi2|]. rewrite lenN_cons. lia.
  Qed.

  (* all states reachable in one run have potential at most B (B = potential of the initial state) *)
  Variable B : N.
  Hypothesis H_B : forall s, inv s -> mu s <= B.

  Lemma Jf_total f {A} (m : @M St A) : B < N.of_nat f -> Jf f m -> J (fun _ => True) m.
  Proof. intros Hf H s Hs. pose proof (H_B s Hs). apply H; [exact Hs|lia]. Qed.

  Lemma J_rep_break_f {A} (body : @M St A) fuel n : B < N.of_nat fuel -> D body ->
    J (fun l => lenN l <= B /\ lenN l <= n) (rep_break_f R fuel n body).
  Proof.
    intros Hf Hb s Hs. pose proof (H_B s Hs) as HB.
    apply (fine_weaken s _ _ _ (rep_break_f_total body Hb fuel n s Hs ltac:(lia))). cbv beta. intros; lia.
  Qed.
  Lemma J_rplm_loop fuel st : B < N.of_nat fuel -> J (fun _ => True) (rplm_loop R fuel st).
  Proof. intros Hf. apply (Jf_total fuel), rplm_loop_total. exact Hf. Qed.
  Lemma J_mmco_loop fuel st : B < N.of_nat fuel -> J (fun _ => True) (mmco_loop R fuel st).
  Proof. intros Hf. apply (Jf_total fuel), mmco_loop_total. exact Hf. Qed.

  Local Hint Resolve J_rplm_loop J_mmco_loop D_pwt_entry : jdb.
  Local Hint Extern 1 (J _ (rep_break_f _ _ _ _)) => (eapply J_true; apply J_rep_break_f; [assumption|]) : jdb.

  (* ================================================================== PPS *)
  Definition sg_t : Type := (N * list N * list N * list N * bool * N * N * list N)%type.
  Definition sg_ok (sg : sg_t) : Prop :=
    let '(mt, rl, tl, br, dir, rate, psmu, ids) := sg in
    lenN rl <= 8 /\ lenN tl <= 7 /\ lenN br <= 7 /\ lenN ids <= B.

  Lemma sg_ok_nil mt dir rate psmu : sg_ok (mt, [], [], [], dir, rate, psmu, []).
  Proof. unfold sg_ok, lenN. cbn [length]. lia. Qed.

  Lemma ceil_log2_pos nsg : 0 < nsg -> nsg <= 7 -> 1 <= ceil_log2 (nsg + 1).
  Proof.
    intros H0 H7.
    assert (Hc : nsg = 1 \/ nsg = 2 \/ nsg = 3 \/ nsg = 4 \/ nsg = 5 \/ nsg = 6 \/ nsg = 7) by lia.
    destruct Hc as [->|[->|[->|[->|[->|[->| ->]]]]]]; vm_compute; discriminate.
  Qed.

  Lemma J_parse_pps_slice_groups_d fuel nsg : B < N.of_nat fuel -> nsg <= 7 ->
    J sg_ok (parse_pps_slice_groups_d R fuel nsg).
  Proof.
    intros Hf H7. unfold parse_pps_slice_groups_d. destruct (0 <? nsg) eqn:H0; [|apply J_ret, sg_ok_nil].
    eapply J_bind_true; [apply J_ue|]. intros mt.
    destruct (mt =? 0).
    { eapply J_bind; [apply (J_rep_n (fun _ => True) (rd_ue R) (nsg + 1)); [bnd|apply J_ue]|].
      intros rl [Hl _]. apply J_ret. unfold sg_ok, lenN in Hl |- *. cbn [length]. lia. }
    destruct (mt =? 2).
    { eapply J_bind; [apply (J_rep_n (fun _ => True) _ nsg); [bnd|jauto]|].
      intros prs [Hl _]. apply J_ret. unfold sg_ok, lenN in Hl |- *. rewrite !map_length. cbn [length]. lia. }
    destruct ((mt =? 3) || (mt =? 4) || (mt =? 5)); [jauto; apply sg_ok_nil|].
    destruct (mt =? 6); [|apply J_ret, sg_ok_nil].
    eapply J_bind_true; [apply J_ue|]. intros psmu.
    eapply J_bind; [apply (J_rep_break_f (rd R (ceil_log2 (nsg + 1))) fuel (psmu + 1) Hf)|].
    - apply D_rd. apply ceil_log2_pos; lia.
    - intros ids [Hl _]. apply J_ret. unfold sg_ok, lenN in Hl |- *. cbn [length]. lia.
  Qed.

  Definition pre_t : Type :=
    (N * N * bool * bool * N * sg_t * N * N * bool * N * Z * Z * Z * bool * bool * bool)%type.
  Definition pre_sg (t : pre_t) : sg_t :=
    let '(id, spsid, ecm, bfp, nsg, sg, l0, l1, wp, wb, qp, qs, cqp, dfc, cip, rpc) := t in sg.

  Lemma J_parse_pps_pre_d fuel : B < N.of_nat fuel ->
    J (fun t => sg_ok (pre_sg t)) (parse_pps_pre_d R fuel).
  Proof.
    intros Hf. unfold parse_pps_pre_d.
    jupto (@parse_pps_slice_groups_d).
    eapply J_bind; [apply (J_parse_pps_slice_groups_d fuel _ Hf); lia|]. intros sg Hsg.
    jauto. cbn [pre_sg]. exact Hsg.
  Qed.

  (* ================================================================== slice header *)
  Lemma J_parse_slice_header_d fuel spsmap ppsmap : B < N.of_nat fuel ->
    J (fun _ => True) (parse_slice_header_d R fuel spsmap ppsmap).
  Proof. intros Hf. unfold parse_slice_header_d. jauto. Qed.

  (* ---- MoreRbspData / ReadRbspTrailingBits *)
  Hypothesis H_more : forall s, inv s -> inv (snd (r_more R s)) /\ mu (snd (r_more R s)) <= mu s.
  Hypothesis H_trailing : forall s, inv s -> inv (snd (r_trailing R s)) /\ mu (snd (r_trailing R s)) <= mu s.

  Definition J_more : J (fun _ => True) (rd_more R) := J_prim _ H_more.
  Definition J_trailing : J (fun _ => True) (rd_trailing R) := J_prim _ H_trailing.
  Local Hint Resolve J_more J_trailing : jdb.

  Definition pps_lists_ok (p : pps) : Prop :=
    lenN (pps_run_length_minus1 p) <= 8 /\ lenN (pps_top_left p) <= 7 /\ lenN (pps_bottom_right p) <= 7 /\
    lenN (pps_slice_group_id p) <= B /\ lists_ok (pps_pic_scaling_lists p).

  Lemma J_parse_pps_post spsmap (t : pre_t) : sg_ok (pre_sg t) ->
    J pps_lists_ok (parse_pps_post R spsmap t).
  Proof.
    intros Hsg. unfold parse_pps_post.
    destruct t as [[[[[[[[[[[[[[[id spsid] ecm] bfp] nsg] sg] l0] l1] wp] wb] qp] qs] cqp] dfc] cip] rpc].
    cbn [pre_sg] in Hsg. destruct sg as [[[[[[[mt rl] tl] br] dir] rate] psmu] ids].
    eapply J_bind_true; [apply J_more|]. intros more.
    eapply (J_bind (fun t => lists_ok (snd (fst t)))).
    { destruct more; [apply J_parse_pps_tail|]. apply J_ret, lists_ok_nil. }
    intros tail Htail. destruct tail as [[[t8 spf] lists] second]. cbn [fst snd] in Htail.
    jauto. unfold pps_lists_ok, sg_ok in Hsg |- *.
    cbn [pps_run_length_minus1 pps_top_left pps_bottom_right pps_slice_group_id pps_pic_scaling_lists].
    destruct Hsg as (H1 & H2 & H3 & H4). auto.
  Qed.

  Lemma J_parse_pps_d fuel spsmap : B < N.of_nat fuel -> J pps_lists_ok (parse_pps_d R fuel spsmap).
  Proof.
    intros Hf. unfold parse_pps_d. jupto (@parse_pps_pre_d).
    eapply J_bind; [apply J_parse_pps_pre_d, Hf|]. apply J_parse_pps_post.
  Qed.

  (* ================================================================================================
     HEVC (C15HevcModel.v through the wrappers of C16HevcParseModel.v).  Everything below may use ALL the
     hypotheses above plus the ones declared here (only the EBSP reader instance is needed: every HEVC
     parser contains a data-driven loop). *)
  Variable bib : St -> N.
  Hypothesis H_more_true : forall s, inv s -> fst (r_more R s) = true -> 0 < mu (snd (r_more R s)).
  Hypothesis H_more_err : forall s, inv s -> mu s = 0 -> fst (r_more R s) = false.
  Hypothesis H_flag_true : forall s, inv s -> fst (r_flag R s) = true -> 0 < mu (snd (r_flag R s)).
  Hypothesis H_align : forall s, inv s -> 0 < mu s -> bib s < 8 ->
    0 < mu (snd (r_flag R s)) /\ bib s < bib (snd (r_flag R s)) /\ bib (snd (r_flag R s)) <= 8.

  Lemma Dw_bind_r {A C} (m : @M St A) (k : A -> @M St C) :
    J (fun _ => True) m -> (forall a, Dw (k a)) -> Dw (bind m k).
  Proof using All.
    intros Hm Hk s Hs. apply (fine_bind s _ _ _ _ (Hm s Hs)). intros a s1 Hi Hmu _.
    apply (fine_weaken s1 _ _ _ (Hk a s1 Hi)). cbv beta. intros; lia.
  Qed.

  (* ---- rep_until_err_f: `for i < n { body; if AccError != nil { break } }` *)
  Lemma rep_until_err_f_total {A} (body : @M St A) : Dw body -> forall fl n, Jf fl (rep_until_err_f R fl n body).
  Proof.
    intros Hb. induction fl as [|f IH]; intros n; [apply Jf_0|]. cbn [rep_until_err_f].
    destruct (n =? 0); [apply Jf_J; jauto|].
    apply Jf_step; [exact Hb|]. intros x. apply Jz_err_test, Jf_bind; [apply IH|]. intro. jauto.
  Qed.

  Lemma J_rep_until_err_f {A} (body : @M St A) fl n : B < N.of_nat fl -> Dw body ->
    J (fun _ => True) (rep_until_err_f R fl n body).
  Proof. intros Hf Hb. apply (Jf_total fl), rep_until_err_f_total; assumption. Qed.

  Lemma bind_rd_more {C} (k : bool -> @M St C) s : bind (rd_more R) k s = k (fst (r_more R s)) (snd (r_more R s)).
  Proof. unfold bind, rd_more. destruct (r_more R s). reflexivity. Qed.
  Lemma bind_rd_flag {C} (k : bool -> @M St C) s : bind (rd_flag R) k s = k (fst (r_flag R s)) (snd (r_flag R s)).
  Proof. unfold bind, rd_flag. destruct (r_flag R s). reflexivity. Qed.

  Lemma fine_from {A} s s1 (Q : A -> St -> Prop) r : mu s1 <= mu s -> fine s1 Q r -> fine s Q r.
  Proof. intros Hm [E|(a & s' & E & Hi & Hm' & Hq)]; [left; exact E|right]. exists a, s'. repeat split; auto. lia. Qed.

  (* ---- hext_data_loop: `for more { flags = append(flags, ReadFlag()); more = MoreRbspData() }`: MoreRbspData
     says true only with potential left, which the flag then consumes *)
  Lemma hext_data_loop_total : forall fl acc, Jf fl (hext_data_loop R fl acc).
  Proof.
    induction fl as [|f IH]; intros acc; [apply Jf_0|]. cbn [hext_data_loop]. intros s Hs Hf.
    rewrite bind_rd_more. destruct (H_more s Hs) as (M1 & M2). pose proof (H_more_true s Hs) as M3.
    destruct (r_more R s) as [more s1]. cbn [fst snd] in M1, M2, M3 |- *. apply (fine_from s s1 _ _ M2).
    destruct more; [|apply fine_ret; auto].
    apply (fine_bind s1 _ _ _ _ (D_flag s1 M1)). intros b s2 Hi2 _ Hd. cbv beta in Hd.
    apply IH; [exact Hi2|]. specialize (M3 eq_refl). lia.
  Qed.

  (* ---- byte_alignment: alignment_bit_equal_to_one must be read as 1 (so no error is pending), then
     at most 7 zero bits up to the byte boundary; fuel 9 is never exhausted *)
  Lemma halign_loop_total : forall fl s, inv s -> 0 < mu s -> 8 - bib s < N.of_nat fl ->
    fine s (fun _ _ => True) (halign_loop R bib fl s).
  Proof.
    induction fl as [|f IH]; intros s Hs Hp Hf; [lia|].
    cbn [halign_loop]. destruct (bib s <? 8) eqn:Hb; [|apply (fine_ret s (fun _ _ => True)); auto].
    destruct (H_align s Hs Hp) as (A1 & A2 & A3); [lia|].
    destruct (H_flag s Hs) as (F1 & F2 & _).
    rewrite bind_rd_flag. destruct (r_flag R s) as [b s1]. cbn [fst snd] in A1, A2, A3, F1, F2 |- *.
    destruct b; [left; reflexivity|]. apply (fine_from s s1 _ _ F2), IH; [exact F1|exact A1|lia].
  Qed.

  Lemma J_align_block {C} (Psi : C -> Prop) (k : unit -> @M St C) :
    (forall u, J Psi (k u)) ->
    J Psi (bind (rd_flag R) (fun ab => if negb ab then fail else bind (halign_loop R bib 9) k)).
  Proof.
    intros Hk s Hs. destruct (H_flag s Hs) as (F1 & F2 & _). pose proof (H_flag_true s Hs) as F3.
    rewrite bind_rd_flag. destruct (r_flag R s) as [ab s1]. cbn [fst snd] in F1, F2, F3 |- *.
    destruct ab; cbn [negb]; [|left; reflexivity]. apply (fine_from s s1 _ _ F2).
    apply (fine_bind s1 _ _ _ _ (halign_loop_total 9 s1 F1 (F3 eq_refl) ltac:(lia))).
    intros u s2 Hi _ _. exact (Hk u s2 Hi).
  Qed.

  Section WithFuel.
  Variable fuel : nat.
  Hypothesis H_fuel : B < N.of_nat fuel.

  Local Hint Extern 1 (J _ (rep_until_err_f _ _ _ _)) => (apply J_rep_until_err_f; [assumption|jauto]) : jdb.
  Local Hint Extern 1 (J _ (hext_data_loop _ _ _)) => (apply (Jf_total fuel), hext_data_loop_total; assumption) : jdb.

  Lemma J_hparse_profile : J (fun _ => True) (hparse_profile R).
  Proof. unfold hparse_profile. jauto. Qed.
  Local Hint Resolve J_hparse_profile : jdb.

  Lemma J_hparse_sub f : J (fun _ => True) (hparse_sub R f).
  Proof. unfold hparse_sub. jauto. Qed.
  Local Hint Resolve J_hparse_sub : jdb.

  Lemma J_hparse_ptl max_sub : max_sub <= 255 -> J (fun _ => True) (hparse_ptl R max_sub).
  Proof. intros Hm. unfold hparse_ptl. jauto. Qed.

  Lemma countb_le (l : list bool) : countb l <= lenN l.
  Proof.
    unfold countb, lenN. induction l as [|b t IH]; cbn [filter length]; [lia|].
    destruct b; cbn [length]; lia.
  Qed.

  (* the index sets[idx - didx] is in range as soon as `sets` has at least idx entries; the new set has at most
     one entry more than the largest set so far (and at most 32 if it is coded explicitly) *)
  Lemma J_hparse_st_rps_K K idx num sets : (N.to_nat idx <= length sets)%nat -> Forall (rps_le K) sets -> K <= 254 ->
    J (rps_le (N.max 32 (K + 1))) (hparse_st_rps R idx num sets).
  Proof.
    intros Hl Hok HK. unfold hparse_st_rps, hparse_rps_inter_entry.
    eapply J_bind_true; [jauto|]. intros inter. destruct inter.
    - eapply J_bind_true; [jauto|]. intros didx.
      destruct ((didx =? 0) || (idx <? didx)) eqn:Hg.
      { jauto. unfold rps_le. cbn [rps_ndelta hrps_zero]. lia. }
      jupto (@nth_error).
      destruct (nth_error sets (N.to_nat (idx - didx))) as [ref|] eqn:Hn.
      2:{ exfalso. apply nth_error_None in Hn. lia. }
      assert (Hr : rps_le K ref) by (eapply Forall_forall; [exact Hok|eapply nth_error_In; exact Hn]).
      unfold rps_le in Hr.
      eapply J_bind; [apply (J_rep_n (fun _ => True)); [bnd|jauto]|].
      intros fls [Hlen _]. apply J_ret. unfold rps_le. cbn [rps_ndelta].
      pose proof (u8_le (countb (map snd fls))) as H1. pose proof (countb_le (map snd fls)) as H2.
      unfold lenN in H2, Hlen. rewrite map_length in H2. lia.
    - eapply J_bind_true; [jauto|]. intros nn0. eapply J_bind_true; [jauto|]. intros np0. cbv zeta.
      destruct ((16 <? u8 nn0) || (16 <? u8 np0)) eqn:Hg.
      { jauto. unfold rps_le. cbn [rps_ndelta]. lia. }
      jauto. unfold rps_le. cbn [rps_ndelta]. pose proof (u8_le (u8 nn0 + u8 np0)). lia.
  Qed.

  Lemma J_hparse_st_rps idx num sets : (N.to_nat idx <= length sets)%nat -> Forall rps_ok sets ->
    J (fun _ => True) (hparse_st_rps R idx num sets).
  Proof. intros Hl Hok. eapply J_true. apply (J_hparse_st_rps_K 254); [exact Hl|exact Hok|lia]. Qed.

  Lemma J_hparse_rps_loop : forall cnt idx num acc,
    length acc = N.to_nat idx -> Forall (rps_le (31 + idx)) acc -> idx + N.of_nat cnt <= 64 ->
    J (fun l => length l = (N.to_nat idx + cnt)%nat /\ Forall (rps_le (31 + idx + N.of_nat cnt)) l)
      (hparse_rps_loop R cnt idx num acc).
  Proof.
    induction cnt as [|c IH]; intros idx num acc Hl Hok Hb; cbn [hparse_rps_loop].
    - apply J_ret. split; [lia|]. eapply Forall_impl; [|exact Hok]. apply rps_le_mono. lia.
    - eapply J_bind; [apply (J_hparse_st_rps_K (31 + idx) idx num acc); [lia|exact Hok|lia]|]. intros r Hr.
      eapply J_bind_true; [apply J_get_err|]. intros e. destruct e; [apply J_fail|].
      eapply J_weaken; [apply (IH (idx + 1) num (acc ++ [r]))|].
      + rewrite app_length. cbn [length]. lia.
      + apply Forall_app. split.
        * eapply Forall_impl; [|exact Hok]. apply rps_le_mono. lia.
        * constructor; [|constructor]. revert Hr. apply rps_le_mono. lia.
      + lia.
      + intros l [H1 H2]. split; [lia|]. eapply Forall_impl; [|exact H2]. apply rps_le_mono. lia.
  Qed.

  Lemma J_hskip_scaling_list_data : J (fun _ => True) (hskip_scaling_list_data R).
  Proof. unfold hskip_scaling_list_data, hskip_scaling_entry. jauto. Qed.

  Lemma J_hparse_subhrd nal vcl subpic : J (fun _ => True) (hparse_subhrd R nal vcl subpic).
  Proof.
    unfold hparse_subhrd, hparse_cpb.
    jupto (@set_err).
    eapply (J_bind (fun cnt => cnt <= 255)).
    { jauto; bnd. }
    intros cnt Hc. jauto.
  Qed.
  Local Hint Resolve J_hparse_subhrd : jdb.

  Lemma J_hparse_hrd max_sub : max_sub <= 255 -> J (fun _ => True) (hparse_hrd R max_sub).
  Proof. intros Hm. unfold hparse_hrd. jauto. Qed.

  Lemma J_hparse_vui max_sub : max_sub <= 255 -> J (fun _ => True) (hparse_vui R max_sub).
  Proof. intros Hm. pose proof (J_hparse_hrd max_sub Hm). unfold hparse_vui, hparse_bsr. jauto. Qed.

  Lemma J_hparse_sps_ext_d chroma bdl bdc : J (fun _ => True) (hparse_sps_ext_d R fuel chroma bdl bdc).
  Proof. unfold hparse_sps_ext_d, hparse_sps_scc_d, hparse_sps_3d. jauto. Qed.

  Lemma J_hparse_end {A} (Phi : A -> Prop) (a : A) : Phi a -> J Phi (hparse_end R a).
  Proof. intros Ha. unfold hparse_end. jauto. exact Ha. Qed.

  Lemma hsps_tight_wf sp : hsps_tight sp -> hsps_wf sp.
  Proof using H_read H_fuel. apply hsps_tight_is_wf. Qed.

  Local Hint Resolve J_hparse_ptl J_hskip_scaling_list_data J_hparse_vui J_hparse_sps_ext_d : jdb.

  Lemma J_hparse_sps_d : J hsps_tight (hparse_sps_d R fuel).
  Proof.
    unfold hparse_sps_d.
    jupto (@hparse_rps_loop).
    match goal with |- J _ (bind (hparse_rps_loop R (N.to_nat ?nst) _ _ _) _) =>
      assert (Hnst : nst <= 64) by lia;
      eapply J_bind; [apply (J_hparse_rps_loop (N.to_nat nst) 0 nst []); [reflexivity|constructor|lia]|];
      intros sets [Hlen Hok] end.
    jupto (@hparse_end).
    apply J_hparse_end. unfold hsps_tight. cbn [h_num_st_rps h_st_rps].
    unfold u8. rewrite N.mod_small by lia. split; [exact Hnst|]. split; [unfold lenN; lia|].
    eapply Forall_impl; [|exact Hok]. apply rps_le_mono. lia.
  Qed.

  (* ================================================================== HEVC PPS *)
  Lemma JO_bind_true {A C} (Psi : C -> Prop) (m : @M St A) (k : A -> @M St C) :
    J (fun _ => True) m -> (forall a, JO Psi (k a)) -> JO Psi (bind m k).
  Proof using All.
    intros Hm Hk s Hs. destruct (Hm s Hs) as [E|(a & s1 & E & Hi & Hmu & _)].
    { left. apply bind_err. exact E. }
    rewrite (bind_ok _ _ _ _ _ E).
    destruct (Hk a s1 Hi) as [E2|[E2|(b & s2 & E2 & Hi2 & Hmu2 & Hp2)]]; [left; exact E2|right; left; exact E2|right; right].
    exists b, s2. repeat split; auto. lia.
  Qed.

  Lemma u64_small x : x < 18446744073709551616 -> u64 x = x.
  Proof. intros H. unfold u64. apply N.mod_small. exact H. Qed.

  Lemma J_hparse_pps_range_d ts : J (fun _ => True) (hparse_pps_range_d R fuel ts).
  Proof. unfold hparse_pps_range_d. jauto. Qed.

  Lemma J_hparse_pps_scc_d : J (fun _ => True) (hparse_pps_scc_d R fuel).
  Proof.
    unfold hparse_pps_scc_d.
    Local Hint Extern 1 (D (rd _ (u64 _))) => (apply D_rd; rewrite u64_small by lia; lia) : jdb.
    jauto.
  Qed.

  Definition hpps_wf (pp : hpps) : Prop := pp_num_extra_bits pp <= 255.

  (* ---- the PPS multilayer / 3D extension skeletons of C16HevcParseModel.v *)
  Lemma Dw_hml_ref_loc_entry : Dw (hml_ref_loc_entry R).
  Proof. unfold hml_ref_loc_entry, four_se, four_ue. jauto. Qed.

  Lemma J_hoct_leaf p res : J (fun _ => True) (hoct_leaf R fuel p res).
  Proof. unfold hoct_leaf, hoct_entry, hoct_coeff, rd_wide. jauto. Qed.
  Local Hint Resolve Dw_hml_ref_loc_entry J_hoct_leaf : jdb.

  (* the recursion is on the remaining depth: at most 8^3 leaves *)
  Lemma J_hoctants : forall d p res, J (fun _ => True) (hoctants R fuel d p res).
  Proof. induction d as [|d IH]; intros p res; cbn [hoctants]; jauto. Qed.
  Local Hint Resolve J_hoctants : jdb.

  Lemma J_hparse_pps_ml_d : J (fun _ => True) (hparse_pps_ml_d R fuel).
  Proof. unfold hparse_pps_ml_d, hparse_cm_table. jauto. Qed.

  Lemma Dw_hparse_depth_layer bd : Dw (hparse_depth_layer R fuel bd).
  Proof. unfold hparse_depth_layer, hparse_delta_dlt. jauto. Qed.
  Local Hint Resolve Dw_hparse_depth_layer : jdb.

  Lemma J_hparse_pps_3d_d : J (fun _ => True) (hparse_pps_3d_d R fuel).
  Proof. unfold hparse_pps_3d_d. jauto. Qed.

  Local Hint Resolve J_hparse_pps_range_d J_hparse_pps_scc_d J_hparse_pps_ml_d J_hparse_pps_3d_d : jdb.

  (* every PPS: the range, multilayer, 3D and SCC extension bodies included *)
  Lemma J_hparse_pps_d spsmap : J hpps_wf (hparse_pps_d R fuel spsmap).
  Proof.
    unfold hparse_pps_d.
    jupto (@hparse_end).
    apply J_hparse_end. unfold hpps_wf. cbn [pp_num_extra_bits]. bnd.
  Qed.

  (* ================================================================== HEVC slice segment header *)
  Lemma hlt_loop_f_total : forall fl cnt i nlsps sp acc npt, Jf fl (hlt_loop_f R fl cnt i nlsps sp acc npt).
  Proof.
    induction fl as [|f IH]; intros cnt i nlsps sp acc npt; [apply Jf_0|].
    cbn [hlt_loop_f]. destruct (cnt =? 0); [apply Jf_J; jauto|].
    apply Jf_pre; [jauto|]. intros lt0. cbv zeta.
    apply Jf_step; [auto with jdb|]. intros msb. repeat fstep IH.
  Qed.
  Local Hint Extern 1 (J _ (hlt_loop_f _ _ _ _ _ _ _ _)) => (apply (Jf_total fuel), hlt_loop_f_total; assumption) : jdb.

  Lemma J_hparse_pwt is_b cat_nz l0 l1 : J (fun _ => True) (hparse_pwt R is_b cat_nz l0 l1).
  Proof. unfold hparse_pwt, hparse_pwt_list, hparse_pwt_values. jauto. Qed.

  Lemma J_hparse_slice_main_d nt sp pp : hsps_wf sp -> hpps_wf pp ->
    J (fun _ => True) (hparse_slice_main_d R fuel nt sp pp).
  Proof.
    intros [Hw1 Hw2] Hp. unfold hpps_wf in Hp.
    pose proof (fun num => J_hparse_st_rps _ num _ Hw1 Hw2).
    pose proof J_hparse_pwt.
    unfold hparse_slice_main_d, hparse_rplm. jauto.
  Qed.

  Lemma J_hparse_slice_d spsmap ppsmap :
    (forall id sp, spsmap id = Some sp -> hsps_wf sp) ->
    (forall id pp, ppsmap id = Some pp -> hpps_wf pp) ->
    J (fun _ => True) (hparse_slice_d R bib fuel spsmap ppsmap).
  Proof.
    intros Hsm Hpm. unfold hparse_slice_d.
    jupto (@hparse_slice_main_d). cbv zeta.
    destruct (ppsmap _) as [pp|] eqn:Ep; [|apply J_fail].
    destruct (spsmap (pp_sps_id pp)) as [sp|] eqn:Es; [|apply J_fail].
    pose proof (fun nt => J_hparse_slice_main_d nt sp pp (Hsm _ _ Es) (Hpm _ _ Ep)).
    repeat (lazymatch goal with
            | |- J _ (bind (rd_flag R) (fun ab => if negb ab then fail else bind (halign_loop _ _ _) _)) => fail
            | |- J _ (bind _ _) => eapply J_bind_true; [jauto|]; intro
            | |- J _ (let _ := _ in _) => cbv zeta
            | |- J _ (match ?p with pair _ _ => _ end) => destruct p
            end).
    apply J_align_block. intro. jauto.
  Qed.

  End WithFuel.

End Logic.
