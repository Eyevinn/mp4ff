(* C16SeiNaluProofs.v — avc.ParseSEINalu / hevc.ParseSEINalu are total for every NAL unit and EVERY SPS-derived
   context: the header accesses are in range, the extractor never runs out of fuel, every per-message
   decoder returns a value or an error, and at most |nalu|/2 messages are decoded.  No axioms. *)
From V.lib Require Import Base.
From V.c13 Require Import C13Model.
From V.c17 Require Import C17Spec C17Model C17TypedModel.
From V.c16 Require C16Model C16SeiProofs.
From V.c16 Require Import C16AuxModel C16AuxSeiProofs C16AuxExtractProofs C16SeiNaluModel.

Definition okerr_u (r : res unit) : Prop := r = Ok tt \/ r = Err.

Lemma cls_okerr {A} (r : res A) : (r = Err \/ exists x, r = Ok x) -> okerr_u (cls r).
Proof. intros [->|[x ->]]; [right|left]; reflexivity. Qed.

Lemma decode_msg_avc_total ctx m : okerr_u (decode_msg_avc ctx m).
Proof.
  destruct m as [ty pl]. unfold decode_msg_avc.
  destruct (ty =? 1).
  { destruct ctx as [[ext tolen]|]; apply cls_okerr.
    - destruct (pt_decode_total ext tolen pl) as [E|(m & E & _)]; [left; exact E|right; eauto].
    - destruct (pt_decode_total None 0 pl) as [E|(m & E & _)]; [left; exact E|right; eauto]. }
  destruct (ty =? 4).
  { apply cls_okerr. destruct (decode_registered_p_total pl) as [E|(m & t & E & _)]; [left; exact E|right; eauto]. }
  destruct (ty =? 5).
  { apply cls_okerr. destruct (decode_unregistered_p_total pl) as [E|(m & E & _)]; [left; exact E|right; eauto]. }
  left. reflexivity.
Qed.

Lemma decode_msg_hevc_total ctx m : okerr_u (decode_msg_hevc ctx m).
Proof.
  destruct m as [ty pl]. unfold decode_msg_hevc.
  destruct ((ty =? 1) && _).
  { destruct ctx as [p|]; [|left; reflexivity].
    destruct (C16SeiProofs.decode_pic_timing_hevc_total p pl) as (f & nal & inc & e & t & E & _).
    rewrite E. destruct e; [right|left]; reflexivity. }
  destruct (ty =? 4).
  { apply cls_okerr. destruct (decode_registered_p_total pl) as [E|(m & t & E & _)]; [left; exact E|right; eauto]. }
  destruct (ty =? 5).
  { apply cls_okerr. destruct (decode_unregistered_p_total pl) as [E|(m & E & _)]; [left; exact E|right; eauto]. }
  destruct (ty =? 136).
  { apply cls_okerr. destruct (tc_decode_total pl) as [E|(m & E & _)]; [left; exact E|right; eauto]. }
  destruct (ty =? 137).
  { apply cls_okerr. destruct (mdcv_decode_p_total pl) as (_ & [E|(m & E)]); [left; exact E|right; eauto]. }
  destruct (ty =? 144).
  { apply cls_okerr. destruct (cll_decode_p_total pl) as (_ & [E|(m & E)]); [left; exact E|right; eauto]. }
  left. reflexivity.
Qed.

Lemma decode_all_total f : (forall m, okerr_u (f m)) ->
  forall l n, decode_all f l n = Err \/ decode_all f l n = Ok (n + lenN l).
Proof.
  intros Hf. induction l as [|m t IH]; intros n; cbn [decode_all].
  - right. rewrite lenN_nil. f_equal. lia.
  - destruct (Hf m) as [-> | ->]; cbn [rbind]; [|left; reflexivity].
    destruct (IH (n + 1)) as [E|E]; [left; exact E|right]. rewrite E, lenN_cons. f_equal. lia.
Qed.

Lemma parse_sei_body_total f rest : (forall m, okerr_u (f m)) ->
  parse_sei_body f rest = Err \/
  exists n miss, parse_sei_body f rest = Ok (n, miss) /\ 2 * n <= lenN rest.
Proof.
  intros Hf. unfold parse_sei_body.
  destruct (extract_sei_data_total rest) as (r & c & E & _ & Hnf & Hb & _).
  rewrite E. cbn [fst]. destruct r as [l|l| |]; [| |left; reflexivity|congruence]; cbn [xres_msgs] in Hb.
  - destruct (decode_all_total f Hf l 0) as [-> | ->]; cbn [rbind]; [left; reflexivity|right].
    eexists _, _. split; [reflexivity|]. lia.
  - destruct (decode_all_total f Hf l 0) as [-> | ->]; cbn [rbind]; [left; reflexivity|right].
    eexists _, _. split; [reflexivity|]. lia.
Qed.

(* seiBytes := nalu[k:] behind the length check, then the body *)
Lemma parse_sei_rest_total f nalu (k : nat) : (forall m, okerr_u (f m)) -> (Z.of_nat k <= lenZ nalu)%Z ->
  let r := do rest <- pslice nalu (Z.of_nat k) (lenZ nalu); parse_sei_body f rest in
  r = Err \/ exists n miss, r = Ok (n, miss) /\ 2 * n <= lenN nalu.
Proof.
  intros Hf Hk. cbv zeta. rewrite pslice_ok by lia. cbn [rbind].
  match goal with |- context [parse_sei_body f ?r] =>
    destruct (parse_sei_body_total f r Hf) as [E|(n & miss & E & Hn)]; [left; exact E|right];
    assert (lenN r <= lenN nalu) by (unfold lenN; rewrite firstn_length, skipn_length; lia) end.
  exists n, miss. split; [exact E|lia].
Qed.

Lemma avc_parse_sei_nalu_total ctx nalu :
  avc_parse_sei_nalu ctx nalu = Err \/
  exists n miss, avc_parse_sei_nalu ctx nalu = Ok (n, miss) /\ 2 * n <= lenN nalu.
Proof.
  unfold avc_parse_sei_nalu. destruct (lenZ nalu <? 1)%Z eqn:Hl; [left; reflexivity|].
  destruct (pidx_ok_ex nalu 0) as [b0 ->]; [lia|]. cbn [rbind].
  destruct (negb _); [left; reflexivity|].
  apply (parse_sei_rest_total _ nalu 1 (decode_msg_avc_total ctx)). lia.
Qed.

Lemma hevc_parse_sei_nalu_total ctx nalu :
  hevc_parse_sei_nalu ctx nalu = Err \/
  exists n miss, hevc_parse_sei_nalu ctx nalu = Ok (n, miss) /\ 2 * n <= lenN nalu.
Proof.
  unfold hevc_parse_sei_nalu. destruct (lenZ nalu <? 2)%Z eqn:Hl; [left; reflexivity|].
  destruct (pidx_ok_ex nalu 0) as [b0 ->]; [lia|]. cbn [rbind]. cbv zeta.
  destruct (negb _); [left; reflexivity|].
  apply (parse_sei_rest_total _ nalu 2 (decode_msg_hevc_total ctx)). lia.
Qed.
