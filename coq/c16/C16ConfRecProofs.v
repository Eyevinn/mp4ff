(* C16ConfRecProofs.v — totality (Ok or Err: never Panic, never OutOfFuel), linear iteration bound
   and linear size bound of the configuration record decoders of C16ConfRecModel.v, for every byte
   list.  No axioms. *)
From V.lib Require Import Base.
From V.c16 Require Import C16Model C16WalkProofs C16ConfRecModel.

Local Open Scope Z_scope.

(* ---------- size accounting ---------- *)
(* total number of bytes of a list of NAL units *)
Definition cr_bytes (l : list (list N)) : N := sumN (map (@lenN N) l).
(* bytes of the record a list of NAL units occupies: a 2-byte length field in front of each *)
Definition cr_cost (l : list (list N)) : N := (2 * lenN l + cr_bytes l)%N.

Lemma cr_cost_nil : cr_cost [] = 0%N.
Proof. reflexivity. Qed.

Lemma cr_bytes_cons x l : cr_bytes (x :: l) = (lenN x + cr_bytes l)%N.
Proof. reflexivity. Qed.

Lemma cr_cost_cons x l : cr_cost (x :: l) = (2 + lenN x + cr_cost l)%N.
Proof. unfold cr_cost. rewrite cr_bytes_cons, lenN_cons. lia. Qed.

Lemma sumN_rev l : sumN (rev l) = sumN l.
Proof.
  induction l as [|x t IH]; [reflexivity|].
  cbn [rev]. rewrite sumN_app, IH. cbn [sumN]. lia.
Qed.

Lemma cr_bytes_rev l : cr_bytes (rev l) = cr_bytes l.
Proof. unfold cr_bytes. rewrite map_rev. apply sumN_rev. Qed.

Lemma cr_cost_rev l : cr_cost (rev l) = cr_cost l.
Proof. unfold cr_cost. rewrite lenN_rev, cr_bytes_rev. reflexivity. Qed.

(* cr_len / cr_idx / cr_slice are lenZ / idx / slice of C16Model.v, which the record model repeats to stand alone *)
Lemma cr_len_nonneg bs : 0 <= cr_len bs.
Proof. exact (lenZ_nonneg bs). Qed.

Lemma cr_len_lenN bs : cr_len bs = Z.of_N (lenN bs).
Proof. exact (lenZ_lenN bs). Qed.

Lemma cr_idx_ok bs i : 0 <= i < cr_len bs -> exists b, cr_idx bs i = Ok b.
Proof. exact (idx_ok bs i). Qed.

Lemma cr_slice_ok bs lo hi : 0 <= lo -> lo <= hi -> hi <= cr_len bs ->
  exists l, cr_slice bs lo hi = Ok l /\ length l = Z.to_nat (hi - lo).
Proof. exact (slice_ok bs lo hi). Qed.

Lemma cr_be16_ok l : (2 <= length l)%nat -> exists v, cr_be16 l = Ok v.
Proof.
  intros H. destruct l as [|a [|b r]]; cbn [length] in H; try lia.
  cbn [cr_be16]. eauto.
Qed.

Lemma cr_be32_ok l : (4 <= length l)%nat -> exists v, cr_be32 l = Ok v.
Proof.
  intros H. destruct l as [|a [|b [|c [|d r]]]]; cbn [length] in H; try lia.
  cbn [cr_be32]. eauto.
Qed.

(* ================================================================== avc *)
Definition b2z (b : bool) : Z := if b then 1 else 0.

(* The parameter-set loop from any state inside the record, for ANY count n: it returns (with or
   without the error flag), stays inside the record, does at most one iteration per two bytes
   consumed plus the failing one, and what it appended fits in what it consumed. *)
Lemma avc_ps_loop_total : forall fuel data i n pos acc t,
  0 <= pos <= cr_len data -> cr_len data - pos < Z.of_nat fuel ->
  exists fl pos' acc' t',
    avc_ps_loop fuel data i n pos acc t = Ok (fl, pos', acc', t') /\
    pos <= pos' <= cr_len data /\
    Z.of_N (cr_cost acc') - Z.of_N (cr_cost acc) <= pos' - pos /\
    Z.of_N t <= Z.of_N t' /\
    2 * (Z.of_N t' - Z.of_N t) <= pos' - pos + 2 * b2z fl /\
    Z.of_N (lenN acc') - Z.of_N (lenN acc) <= Z.of_N t' - Z.of_N t.
Proof.
  induction fuel as [|f IH]; intros data i n pos acc t Hp Hf.
  - lia.
  - cbn [avc_ps_loop]. destruct (i <? n) eqn:Hi.
    + destruct (pos + 2 >? cr_len data) eqn:H2.
      * exists true, pos, acc, (t + 1)%N. split; [reflexivity|]. cbn [b2z]. lia.
      * destruct (cr_slice_ok data pos (pos + 2)) as (hdr & -> & Hl); try lia.
        cbn [rbind]. destruct (cr_be16_ok hdr) as (nl & ->); [lia|].
        cbn [rbind].
        destruct (pos + 2 + Z.of_N nl >? cr_len data) eqn:H3.
        -- exists true, (pos + 2), acc, (t + 1)%N. split; [reflexivity|]. cbn [b2z]. lia.
        -- destruct (cr_slice_ok data (pos + 2) (pos + 2 + Z.of_N nl)) as (nalu & -> & Hn); try lia.
           cbn [rbind].
           destruct (IH data (i + 1) n (pos + 2 + Z.of_N nl) (nalu :: acc) (t + 1)%N)
             as (fl & pos' & acc' & t' & -> & Hp' & Hc & Ht & Hk & Hln); try lia.
           exists fl, pos', acc', t'. split; [reflexivity|].
           rewrite cr_cost_cons in Hc. rewrite lenN_cons in Hln.
           assert (Z.of_N (lenN nalu) = Z.of_N nl) by (unfold lenN; lia).
           lia.
    + exists false, pos, acc, t. split; [reflexivity|]. cbn [b2z]. lia.
Qed.

Definition avc_rec_bounds (data : list N) (r : avc_rec) (t : N) : Prop :=
  (2 * t + 7 <= lenN data)%N /\
  (lenN (ar_sps r) + lenN (ar_pps r) <= t)%N /\
  (7 + cr_cost (ar_sps r) + cr_cost (ar_pps r) <= lenN data)%N.

Lemma avc_confrec_total data :
  avc_decode_dec_conf_rec data = Err \/
  exists r t, avc_decode_dec_conf_rec data = Ok (r, t) /\ avc_rec_bounds data r t.
Proof.
  unfold avc_decode_dec_conf_rec.
  destruct (cr_len data <? 6) eqn:H6; [left; reflexivity|].
  destruct (cr_idx_ok data 0) as (ver & ->); [lia|]. cbn [rbind].
  destruct (negb (ver =? 1)%N); [left; reflexivity|].
  destruct (cr_idx_ok data 1) as (prof & ->); [lia|]. cbn [rbind].
  destruct (cr_idx_ok data 2) as (compat & ->); [lia|]. cbn [rbind].
  destruct (cr_idx_ok data 3) as (level & ->); [lia|]. cbn [rbind].
  destruct (cr_idx_ok data 4) as (b4 & ->); [lia|]. cbn [rbind].
  destruct (negb (N.land b4 3 =? 3)%N); [left; reflexivity|].
  destruct (cr_idx_ok data 5) as (b5 & ->); [lia|]. cbn [rbind].
  destruct (avc_ps_loop_total (cr_fuel data) data 0 (Z.of_N (N.land b5 31)) 6 [] 0%N)
    as (fl1 & pos1 & sps & t1 & -> & Hp1 & Hc1 & Ht1 & Hk1 & Hl1).
  { lia. }
  { unfold cr_fuel, cr_len. lia. }
  cbn [rbind]. destruct fl1; [left; reflexivity|].
  destruct (pos1 >=? cr_len data) eqn:Hge; [left; reflexivity|].
  destruct (cr_idx_ok data pos1) as (npps & ->); [lia|]. cbn [rbind].
  destruct (avc_ps_loop_total (cr_fuel data) data 0 (Z.of_N npps) (pos1 + 1) [] t1)
    as (fl2 & pos2 & pps & t2 & -> & Hp2 & Hc2 & Ht2 & Hk2 & Hl2).
  { lia. }
  { unfold cr_fuel, cr_len. lia. }
  cbn [rbind]. destruct fl2; [left; reflexivity|].
  cbn [b2z] in Hk1, Hk2. rewrite cr_cost_nil in Hc1, Hc2. rewrite lenN_nil in Hl1, Hl2.
  assert (Hb : forall c l ch e nt,
             avc_rec_bounds data (mkAvcRec prof compat level (rev sps) (rev pps) c l ch e nt) t2).
  { intros. unfold avc_rec_bounds. cbn [ar_sps ar_pps].
    rewrite !cr_cost_rev, !lenN_rev. rewrite cr_len_lenN in *. lia. }
  destruct (avc_no_trailer_profile prof).
  { right. eexists _, _. split; [reflexivity|]. apply Hb. }
  destruct (pos2 =? cr_len data) eqn:He.
  { right. eexists _, _. split; [reflexivity|]. apply Hb. }
  destruct (pos2 + 4 >? cr_len data) eqn:H4; [left; reflexivity|].
  destruct (cr_idx_ok data pos2) as (c & ->); [lia|]. cbn [rbind].
  destruct (cr_idx_ok data (pos2 + 1)) as (l & ->); [lia|]. cbn [rbind].
  destruct (cr_idx_ok data (pos2 + 2)) as (ch & ->); [lia|]. cbn [rbind].
  destruct (cr_idx_ok data (pos2 + 3)) as (e & ->); [lia|]. cbn [rbind].
  destruct (negb (e =? 0)%N); [left; reflexivity|].
  right. eexists _, _. split; [reflexivity|]. apply Hb.
Qed.

(* ================================================================== bits.FixedSliceReader *)
Definition fsr_wf (data : list N) (s : fsr) : Prop := 0 <= fs_pos s <= cr_len data.

(* a read of k bytes: the position stays inside the slice; the accumulated error is sticky; when no
   error is set afterwards none was set before and exactly k bytes have been consumed *)
Definition fsr_step (data : list N) (k : Z) (s s' : fsr) : Prop :=
  fsr_wf data s' /\ fs_pos s <= fs_pos s' <= fs_pos s + k /\
  (fs_err s' = false -> fs_err s = false /\ fs_pos s' = fs_pos s + k).

Lemma fsr_step_refl data s : fsr_wf data s -> fsr_step data 0 s s.
Proof. intros H. split; [exact H|]. split; [lia|]. intros E. split; [exact E|lia]. Qed.

Lemma fsr_step_trans data k1 k2 s s1 s2 :
  fsr_step data k1 s s1 -> fsr_step data k2 s1 s2 -> fsr_step data (k1 + k2) s s2.
Proof.
  intros (_ & P1 & E1) (W2 & P2 & E2). split; [exact W2|]. split; [lia|]. intros E.
  destruct (E2 E) as (E' & Q2). destruct (E1 E') as (E0 & Q1). split; [exact E0|lia].
Qed.

(* the shape of ReadUint8/16/32: 0 under the accumulated error, the error when fewer than k bytes are left,
   else a value decoded from the next k bytes *)
Lemma fsr_fixed_ok data k (body : res (N * fsr)) s : 0 <= k -> fsr_wf data s ->
  (fs_pos s + k <= cr_len data -> exists v, body = Ok (v, mkFsr false (fs_pos s + k))) ->
  exists v s', (if fs_err s then Ok (0%N, s)
                else if fs_pos s >? cr_len data - k then Ok (0%N, mkFsr true (fs_pos s)) else body) = Ok (v, s') /\
               fsr_step data k s s'.
Proof.
  destruct s as [e p]. unfold fsr_step, fsr_wf. cbn [fs_err fs_pos]. intros Hk Hw Hb.
  destruct e; [eexists _, _; split; [reflexivity|]; cbn [fs_err fs_pos]; lia|].
  destruct (p >? cr_len data - k) eqn:H; [eexists _, _; split; [reflexivity|]; cbn [fs_err fs_pos]; lia|].
  destruct Hb as (v & ->); [lia|]. eexists _, _. split; [reflexivity|]. cbn [fs_err fs_pos]. lia.
Qed.

Lemma fsr_read_u8_ok data s : fsr_wf data s ->
  exists v s', fsr_read_u8 data s = Ok (v, s') /\ fsr_step data 1 s s'.
Proof.
  intros Hw. apply fsr_fixed_ok; [lia|exact Hw|]. intros H.
  destruct (cr_idx_ok data (fs_pos s)) as (b & ->); [unfold fsr_wf in Hw; lia|]. cbn [rbind]. eauto.
Qed.

Lemma fsr_read_u16_ok data s : fsr_wf data s ->
  exists v s', fsr_read_u16 data s = Ok (v, s') /\ fsr_step data 2 s s'.
Proof.
  intros Hw. apply fsr_fixed_ok; [lia|exact Hw|]. intros H.
  destruct (cr_slice_ok data (fs_pos s) (fs_pos s + 2)) as (b & -> & Hl); try (unfold fsr_wf in Hw; lia). cbn [rbind].
  destruct (cr_be16_ok b) as (v & ->); [lia|]. cbn [rbind]. eauto.
Qed.

Lemma fsr_read_u32_ok data s : fsr_wf data s ->
  exists v s', fsr_read_u32 data s = Ok (v, s') /\ fsr_step data 4 s s'.
Proof.
  intros Hw. apply fsr_fixed_ok; [lia|exact Hw|]. intros H.
  destruct (cr_slice_ok data (fs_pos s) (fs_pos s + 4)) as (b & -> & Hl); try (unfold fsr_wf in Hw; lia). cbn [rbind].
  destruct (cr_be32_ok b) as (v & ->); [lia|]. cbn [rbind]. eauto.
Qed.

Lemma fsr_read_bytes_ok data s n : fsr_wf data s -> 0 <= n ->
  exists b s', fsr_read_bytes data s n = Ok (b, s') /\ fsr_step data n s s' /\
    Z.of_N (lenN b) <= fs_pos s' - fs_pos s /\
    (fs_err s' = false -> Z.of_N (lenN b) = n).
Proof.
  destruct s as [e p]. unfold fsr_step, fsr_wf, fsr_read_bytes. cbn [fs_err fs_pos]. intros Hw Hn.
  replace (n <? 0) with false by lia.
  destruct e.
  { eexists _, _. split; [reflexivity|]. cbn [fs_err fs_pos]. rewrite lenN_nil. lia. }
  destruct (p >? cr_len data - n) eqn:H.
  { eexists _, _. split; [reflexivity|]. cbn [fs_err fs_pos]. rewrite lenN_nil. lia. }
  destruct (cr_slice_ok data p (p + n)) as (b & -> & Hl); try lia. cbn [rbind].
  eexists _, _. split; [reflexivity|]. cbn [fs_err fs_pos].
  assert (Z.of_N (lenN b) = n) by (unfold lenN; lia). lia.
Qed.

(* ================================================================== hevc *)
Lemma hevc_nalu_loop_total : forall fuel data i n s acc t,
  fsr_wf data s -> cr_len data - fs_pos s < Z.of_nat fuel ->
  exists early s' acc' t',
    hevc_nalu_loop fuel data i n s acc t = Ok (early, s', acc', t') /\
    fsr_wf data s' /\ fs_pos s <= fs_pos s' /\
    (fs_err s' = false -> fs_err s = false) /\
    (early = true -> fs_err s' = true) /\
    Z.of_N t <= Z.of_N t' /\
    2 * (Z.of_N t' - Z.of_N t) <= fs_pos s' - fs_pos s + 2 * b2z early /\
    Z.of_N (cr_cost acc') - Z.of_N (cr_cost acc) <= fs_pos s' - fs_pos s + 2 * b2z early /\
    Z.of_N (cr_bytes acc') - Z.of_N (cr_bytes acc) <= fs_pos s' - fs_pos s /\
    Z.of_N (lenN acc') - Z.of_N (lenN acc) <= Z.of_N t' - Z.of_N t.
Proof.
  induction fuel as [|f IH]; intros data i n s acc t Hw Hf.
  - unfold fsr_wf in Hw. lia.
  - cbn [hevc_nalu_loop]. destruct (i <? n) eqn:Hi.
    + destruct (fsr_read_u16_ok data s Hw) as (nl & s1 & -> & Hw1 & Hp1 & He1). cbn [rbind].
      destruct (fsr_read_bytes_ok data s1 (Z.of_N nl) Hw1) as (b & s2 & -> & (Hw2 & Hp2 & He2) & Hb & Hbl); [lia|].
      cbn [rbind].
      destruct (fs_err s2) eqn:E2.
      * exists true, s2, (b :: acc), (t + 1)%N. split; [reflexivity|].
        rewrite cr_cost_cons, cr_bytes_cons, lenN_cons, E2. cbn [b2z]. unfold fsr_wf in *. lia.
      * destruct He2 as (E1 & Hq2); [reflexivity|]. destruct (He1 E1) as (E0 & Hq1).
        destruct (IH data (i + 1) n s2 (b :: acc) (t + 1)%N Hw2)
          as (early & s' & acc' & t' & -> & Hw' & Hp' & He' & Hearly & Ht & Hk & Hc & Hby & Hln).
        { unfold fsr_wf in *. lia. }
        exists early, s', acc', t'. split; [reflexivity|].
        rewrite cr_cost_cons in Hc. rewrite cr_bytes_cons in Hby. rewrite lenN_cons in Hln.
        specialize (Hbl eq_refl).
        unfold fsr_wf in *. repeat split; try lia; try assumption. intros _. exact E0.
    + exists false, s, acc, t. split; [reflexivity|]. cbn [b2z]. unfold fsr_wf in *.
      repeat split; try lia; try (intros; assumption); try discriminate.
Qed.

(* record bytes / NAL unit bytes / NAL unit count of a list of arrays *)
Definition hevc_arrs_cost (a : list (N * list (list N))) : N := sumN (map (fun x => 3 + cr_cost (snd x))%N a).
Definition hevc_arrs_bytes (a : list (N * list (list N))) : N := sumN (map (fun x => cr_bytes (snd x)) a).
Definition hevc_arrs_units (a : list (N * list (list N))) : N := sumN (map (fun x => lenN (snd x)) a).

Lemma hevc_arrs_cost_cons ct l a : hevc_arrs_cost ((ct, l) :: a) = (3 + cr_cost l + hevc_arrs_cost a)%N.
Proof. reflexivity. Qed.
Lemma hevc_arrs_bytes_cons ct l a : hevc_arrs_bytes ((ct, l) :: a) = (cr_bytes l + hevc_arrs_bytes a)%N.
Proof. reflexivity. Qed.
Lemma hevc_arrs_units_cons ct l a : hevc_arrs_units ((ct, l) :: a) = (lenN l + hevc_arrs_units a)%N.
Proof. reflexivity. Qed.

Lemma hevc_arrs_cost_rev a : hevc_arrs_cost (rev a) = hevc_arrs_cost a.
Proof. unfold hevc_arrs_cost. rewrite map_rev. apply sumN_rev. Qed.
Lemma hevc_arrs_bytes_rev a : hevc_arrs_bytes (rev a) = hevc_arrs_bytes a.
Proof. unfold hevc_arrs_bytes. rewrite map_rev. apply sumN_rev. Qed.
Lemma hevc_arrs_units_rev a : hevc_arrs_units (rev a) = hevc_arrs_units a.
Proof. unfold hevc_arrs_units. rewrite map_rev. apply sumN_rev. Qed.

Lemma hevc_array_loop_total : forall fuel data j n s arrs t,
  fsr_wf data s -> Z.max 0 (n - j) < Z.of_nat fuel ->
  exists early s' arrs' t' dropped,
    hevc_array_loop fuel data j n s arrs t = Ok (early, s', arrs', t', dropped) /\
    fsr_wf data s' /\ fs_pos s <= fs_pos s' /\
    (fs_err s' = false -> fs_err s = false) /\
    (early = true -> fs_err s' = true) /\
    (early = false -> dropped = []) /\
    Z.of_N t <= Z.of_N t' /\
    2 * (Z.of_N t' - Z.of_N t) <= 2 * Z.max 0 (n - j) + (fs_pos s' - fs_pos s) + 2 * b2z early /\
    (fs_err s' = false ->
       Z.of_N (hevc_arrs_cost arrs') - Z.of_N (hevc_arrs_cost arrs) <= fs_pos s' - fs_pos s) /\
    Z.of_N (hevc_arrs_bytes arrs') + Z.of_N (cr_bytes dropped) - Z.of_N (hevc_arrs_bytes arrs)
      <= fs_pos s' - fs_pos s /\
    Z.of_N (hevc_arrs_units arrs') + Z.of_N (lenN dropped) - Z.of_N (hevc_arrs_units arrs)
      <= Z.of_N t' - Z.of_N t /\
    Z.of_N (lenN arrs') - Z.of_N (lenN arrs) <= Z.max 0 (n - j).
Proof.
  induction fuel as [|f IH]; intros data j n s arrs t Hw Hf.
  - lia.
  - cbn [hevc_array_loop]. destruct (j <? n) eqn:Hj.
    + destruct (fsr_read_u8_ok data s Hw) as (ct & s1 & -> & Hw1 & Hp1 & He1). cbn [rbind].
      destruct (fsr_read_u16_ok data s1 Hw1) as (nn & s2 & -> & Hw2 & Hp2 & He2). cbn [rbind].
      destruct (hevc_nalu_loop_total (cr_fuel data) data 0 (Z.of_N nn) s2 [] (t + 1)%N Hw2)
        as (early & s3 & nalus & t3 & -> & Hw3 & Hp3 & He3 & Hearly & Ht3 & Hk3 & Hc3 & Hb3 & Hl3).
      { unfold fsr_wf, cr_fuel, cr_len in *. lia. }
      cbn [rbind]. rewrite cr_cost_nil in Hc3. change (cr_bytes []) with 0%N in Hb3.
      rewrite lenN_nil in Hl3.
      destruct early.
      * exists true, s3, arrs, t3, nalus. split; [reflexivity|].
        assert (E3 : fs_err s3 = true) by (apply Hearly; reflexivity). rewrite E3.
        cbn [b2z] in *. unfold fsr_wf in *.
        repeat split; try lia; try discriminate.
      * destruct (IH data (j + 1) n s3 ((ct, rev nalus) :: arrs) t3 Hw3)
          as (early & s' & arrs' & t' & dropped & -> & Hw' & Hp' & He' & Hearly' & Hdrop & Ht' & Hk' & Hc' & Hb' & Hu' & Hn').
        { lia. }
        exists early, s', arrs', t', dropped. split; [reflexivity|].
        rewrite hevc_arrs_cost_cons, cr_cost_rev in Hc'.
        rewrite hevc_arrs_bytes_cons, cr_bytes_rev in Hb'.
        rewrite hevc_arrs_units_cons, lenN_rev in Hu'.
        rewrite lenN_cons in Hn'.
        cbn [b2z] in *. unfold fsr_wf in *.
        repeat split; try assumption; try lia.
        -- intros E'. apply He1, He2, He3, He', E'.
        -- intros E'. specialize (Hc' E').
           destruct (He2 (He3 (He' E'))) as (E1 & Hq2). destruct (He1 E1) as (_ & Hq1). lia.
    + exists false, s, arrs, t, []. split; [reflexivity|].
      cbn [b2z]. unfold fsr_wf in *. change (cr_bytes []) with 0%N. change (@lenN (list N) []) with 0%N.
      repeat split; try lia; try (intros; assumption); try discriminate.
Qed.

(* what holds of EVERY result of the HEVC decoder, error paths included (Go returns the partly filled
   record together with the error; `dropped` = units appended to the array abandoned by the early return) *)
Definition hevc_full_bounds (data : list N) (r : hevc_rec) (e : bool) (t : N) (dropped : list (list N)) : Prop :=
  (lenN (hr_arrays r) <= 255)%N /\
  (2 * t <= lenN data + 512)%N /\
  (hevc_arrs_units (hr_arrays r) + lenN dropped <= t)%N /\
  (hevc_arrs_bytes (hr_arrays r) + cr_bytes dropped <= lenN data)%N /\
  (e = false -> dropped = [] /\ (23 + hevc_arrs_cost (hr_arrays r) <= lenN data)%N).

Lemma hevc_full_bounds_nil data r : hr_arrays r = [] -> hevc_full_bounds data r true 0 [].
Proof.
  intros Hr. unfold hevc_full_bounds. rewrite Hr.
  change (hevc_arrs_units []) with 0%N. change (hevc_arrs_bytes []) with 0%N.
  change (cr_bytes []) with 0%N. change (@lenN (list N) []) with 0%N.
  change (@lenN (N * list (list N)) []) with 0%N.
  repeat split; try lia; try discriminate.
Qed.

(* one header read: C says how far the reader has come from the start of the record *)
Ltac fsr_rd lem :=
  match goal with C : fsr_step ?d _ _ ?s |- _ =>
    let C' := fresh "C" in
    destruct (lem d s (proj1 C)) as (? & ? & -> & C'); cbn [rbind];
    apply (fsr_step_trans _ _ _ _ _ _ C) in C'; clear C
  end.

Lemma hevc_full_total data :
  exists r e t dropped,
    hevc_decode_full data = Ok (r, e, t, dropped) /\ hevc_full_bounds data r e t dropped.
Proof.
  unfold hevc_decode_full.
  assert (C : fsr_step data 0 fsr_init fsr_init).
  { apply fsr_step_refl. unfold fsr_wf, fsr_init. cbn [fs_pos]. pose proof (cr_len_nonneg data). lia. }
  fsr_rd fsr_read_u8_ok.
  match goal with |- context [if ?c then _ else _] => destruct c end.
  { eexists _, _, _, _. split; [reflexivity|]. apply hevc_full_bounds_nil. reflexivity. }
  fsr_rd fsr_read_u8_ok. fsr_rd fsr_read_u32_ok. fsr_rd fsr_read_u32_ok. fsr_rd fsr_read_u16_ok.
  fsr_rd fsr_read_u8_ok. fsr_rd fsr_read_u16_ok. fsr_rd fsr_read_u8_ok. fsr_rd fsr_read_u8_ok.
  fsr_rd fsr_read_u8_ok. fsr_rd fsr_read_u8_ok. fsr_rd fsr_read_u16_ok. fsr_rd fsr_read_u8_ok.
  match goal with |- context [if ?c then _ else _] => destruct c end.
  { eexists _, _, _, _. split; [reflexivity|]. apply hevc_full_bounds_nil. reflexivity. }
  fsr_rd fsr_read_u8_ok.
  match goal with C : fsr_step _ _ _ ?s, na : N |- context [hevc_array_loop _ _ _ (Z.of_N (u8 ?na)) ?s] =>
    destruct (hevc_array_loop_total hevc_array_fuel data 0 (Z.of_N (u8 na)) s [] 0%N (proj1 C))
      as (early & s' & arrs & t & dropped & -> & Hw' & Hp' & He' & Hearly & Hdrop & Ht & Hk & Hc & Hb & Hu & Hn);
    [unfold hevc_array_fuel, u8; lia|];
    assert (Hna : Z.of_N (u8 na) <= 255) by (unfold u8; lia);
    destruct C as (_ & Hp & He)
  end.
  cbn [rbind].
  eexists _, _, _, _. split; [reflexivity|].
  unfold hevc_full_bounds. cbn [hr_arrays].
  rewrite lenN_rev, hevc_arrs_units_rev, hevc_arrs_bytes_rev, hevc_arrs_cost_rev.
  change (hevc_arrs_units []) with 0%N in Hu. change (hevc_arrs_bytes []) with 0%N in Hb.
  change (hevc_arrs_cost []) with 0%N in Hc. change (@lenN (N * list (list N)) []) with 0%N in Hn.
  assert (Hbe : b2z early <= 1) by (destruct early; cbn [b2z]; lia).
  unfold fsr_wf in *. cbn [fs_pos fsr_init] in Hp, He. rewrite cr_len_lenN in *.
  repeat split; try lia.
  destruct early; [|apply Hdrop; reflexivity]. rewrite (Hearly eq_refl) in H. discriminate.
Qed.

Lemma hevc_confrec_total data :
  hevc_decode_dec_conf_rec data = Err \/
  exists r t, hevc_decode_dec_conf_rec data = Ok (r, t) /\
    (lenN (hr_arrays r) <= 255)%N /\ (2 * t <= lenN data + 512)%N /\
    (hevc_arrs_units (hr_arrays r) <= t)%N /\
    (23 + hevc_arrs_cost (hr_arrays r) <= lenN data)%N.
Proof.
  unfold hevc_decode_dec_conf_rec.
  destruct (hevc_full_total data) as (r & e & t & dropped & -> & Hl & Ht & Hu & Hb & He).
  cbn [rbind]. destruct e; [left; reflexivity|].
  right. exists r, t. split; [reflexivity|].
  destruct (He eq_refl) as (-> & Hc). change (@lenN (list N) []) with 0%N in Hu.
  repeat split; try lia.
Qed.

(* The number of arrays is NOT bounded by the input length: 23 bytes announcing 255 arrays give 255
   (empty) arrays, returned together with the read error.  255 is the bound (hevc_full_bounds). *)
Lemma hevc_arrays_le_len_refuted :
  exists data r e t d, hevc_decode_full data = Ok (r, e, t, d) /\ e = true /\
    (lenN data = 23)%N /\ (lenN (hr_arrays r) = 255)%N.
Proof.
  exists [1;0;0;0;0;0;0;0;0;0;0;0;0;0;0;0;0;0;0;0;0;3;255]%N.
  eexists _, _, _, _. split; [vm_compute; reflexivity|]. split; [reflexivity|]. split; reflexivity.
Qed.

(* ================================================================== av1 *)
Lemma av1_confrec_total data :
  av1_decode_codec_conf_rec data = Err \/
  exists r, av1_decode_codec_conf_rec data = Ok r /\ (4 + lenN (av_config_obus r) = lenN data)%N.
Proof.
  unfold av1_decode_codec_conf_rec.
  destruct (cr_len data <? 4) eqn:H4; [left; reflexivity|].
  destruct (cr_idx_ok data 0) as (b0 & ->); [lia|]. cbn [rbind].
  destruct (negb (N.shiftr b0 7 =? 1)%N); [left; reflexivity|].
  destruct (negb (N.land b0 127 =? 1)%N); [left; reflexivity|].
  destruct (cr_idx_ok data 1) as (b1 & ->); [lia|]. cbn [rbind].
  destruct (cr_idx_ok data 2) as (b2 & ->); [lia|]. cbn [rbind].
  destruct (cr_idx_ok data 3) as (b3 & ->); [lia|]. cbn [rbind].
  destruct (negb (N.shiftr b3 5 =? 0)%N); [left; reflexivity|].
  destruct (negb (N.land (N.shiftr b3 4) 1 =? 1)%N && negb (N.land b3 15 =? 0)%N); [left; reflexivity|].
  destruct (cr_len data >? 4) eqn:Hg.
  - destruct (cr_slice_ok data 4 (cr_len data)) as (obus & -> & Hl); try lia. cbn [rbind].
    right. eexists. split; [reflexivity|]. cbn [av_config_obus].
    rewrite cr_len_lenN in *. unfold lenN in *. lia.
  - cbn [rbind]. right. eexists. split; [reflexivity|]. cbn [av_config_obus].
    rewrite cr_len_lenN in *. change (@lenN N []) with 0%N. lia.
Qed.
