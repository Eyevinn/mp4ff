(* C16TheoremsAux.v — C16 totality theorems about code modelled by other properties (C17: SEI extractor
   and typed SEI decoders; C18: ADTS / AudioSpecificConfig; C14: Annex B scanners), and nothing else.
   Each is closed by `exact <lemma>` and followed by Print Assumptions.

   Shape: for EVERY input (no bound on its length, no well-formedness hypothesis unless written) the
   modelled function returns a value or `Err`: never `Panic`, never out of fuel; loop iterations and
   the sizes of what is built are bounded by a linear function of the input length.
   `_p` / `_go` / `_t` functions are the wrappers of C16AuxModel.v (partial index and slice operations
   mirroring the Go text; ReadBytes as Go runs it; counted loops); every theorem about a wrapper also
   states that it returns what the imported model returns. *)
From V.lib Require Import Base.
From V.c13 Require Import C13Model.
From V.c17 Require Import C17Spec C17Model C17TypedModel.
From V.c18 Require C18Model.
From V.c14 Require C14Spec C14Model.
From V.c16 Require Import C16ResProofs C16AuxModel C16AuxSeiProofs C16AuxExtractProofs C16AuxAacProofs C16AuxScanProofs C16AuxStreamProofs
  C16SeiStrModel C16SeiStrProofs C16SeiFswModel C16SeiFswProofs C16SeiFswTieProofs.

(* ------------------------------------------------------------------ sei.ExtractSEIData *)
(* every byte list: the Go-shaped run returns what the C17 model returns; never out of fuel;
   2 * #messages + payload bytes <= |data|; the 0xFF-run loops make at most |data| + 2 reads; the
   ReadBytes iterations are the bytes requested; without failure the bytes requested are the bytes returned *)
Theorem C16_sei_ExtractSEIData_total : forall data : list N,
  exists r c, extract_sei_data_go data = (r, c) /\ extract_sei_data data = r /\ r <> XFuel /\
    2 * lenN (xres_msgs r) + payload_bytes (xres_msgs r) <= lenN data /\
    c_ffreads c <= lenN data + 2 /\
    c_pliters c = sumN (c_allocs c) /\
    (r <> XErr -> sumN (c_allocs c) = payload_bytes (xres_msgs r)).
Proof. exact extract_sei_data_total. Qed.
Print Assumptions C16_sei_ExtractSEIData_total.

(* byte inputs: all requests to ReadBytes together (allocation and loop iterations), including a last
   request larger than the input, are at most 255 * (|data| + 2) *)
Theorem C16_sei_ExtractSEIData_alloc_total : forall data : list N,
  bytes_ok data = true ->
  sumN (c_allocs (snd (extract_sei_data_go data))) <= 255 * (lenN data + 2) /\
  c_pliters (snd (extract_sei_data_go data)) <= 255 * (lenN data + 2).
Proof. exact extract_sei_data_alloc_bound. Qed.
Print Assumptions C16_sei_ExtractSEIData_alloc_total.

(* ------------------------------------------------------------------ sei4.go / sei5.go *)
Theorem C16_sei_ParseCEA608_total : forall pl : list N,
  rmap fst (parse_cea608_p pl) = parse_cea608 pl /\
  (parse_cea608_p pl = Err \/
   exists f1 f2 t, parse_cea608_p pl = Ok (f1, f2, t) /\
                   t <= 31 /\ 3 * t <= lenN pl /\ lenN f1 + lenN f2 <= 2 * t).
Proof. exact parse_cea608_p_total. Qed.
Print Assumptions C16_sei_ParseCEA608_total.

Theorem C16_sei_ExtractCEA608sei_total : forall pl : list N,
  extract_cea608_p pl = Err \/
  exists m t, extract_cea608_p pl = Ok (m, t) /\ ps_payload m = pl /\ t <= 31 /\ 3 * t <= lenN pl /\
    match ps_kind m with KCea608 f1 f2 => lenN f1 + lenN f2 <= 2 * t | _ => False end.
Proof. exact extract_cea608_p_total. Qed.
Print Assumptions C16_sei_ExtractCEA608sei_total.

Theorem C16_sei_DecodeUserDataRegisteredSEI_total : forall pl : list N,
  rmap fst (decode_registered_p pl) = decode_registered pl /\
  (decode_registered_p pl = Err \/
   exists m t, decode_registered_p pl = Ok (m, t) /\ ps_payload m = pl /\ t <= 31 /\ 3 * t <= lenN pl /\
     match ps_kind m with KCea608 f1 f2 => lenN f1 + lenN f2 <= 2 * t | _ => True end).
Proof. exact (fun pl => conj (decode_registered_p_spec pl) (decode_registered_p_total pl)). Qed.
Print Assumptions C16_sei_DecodeUserDataRegisteredSEI_total.

(* ... and UnregisteredSEI.String's payload[16:] on the decoded message *)
Theorem C16_sei_DecodeUserDataUnregisteredSEI_total : forall pl : list N,
  decode_unregistered_p pl = decode_unregistered pl /\
  (decode_unregistered_p pl = Err \/
   exists m, decode_unregistered_p pl = Ok m /\ ps_payload m = pl /\
             (exists s, unregistered_string_accesses m = Ok s) /\
             match ps_kind m with KUnregistered u => lenN u = 16 | _ => False end).
Proof. exact (fun pl => conj (decode_unregistered_p_spec pl) (decode_unregistered_p_total pl)). Qed.
Print Assumptions C16_sei_DecodeUserDataUnregisteredSEI_total.

(* ------------------------------------------------------------------ sei137.go / sei144.go *)
Theorem C16_sei_DecodeMasteringDisplayColourVolumeSEI_total : forall p : list N,
  mdcv_decode_p p = mdcv_decode p /\ (mdcv_decode_p p = Err \/ exists m, mdcv_decode_p p = Ok m).
Proof. exact mdcv_decode_p_total. Qed.
Print Assumptions C16_sei_DecodeMasteringDisplayColourVolumeSEI_total.

Theorem C16_sei_DecodeContentLightLevelInformationSEI_total : forall p : list N,
  cll_decode_p p = cll_decode p /\ (cll_decode_p p = Err \/ exists m, cll_decode_p p = Ok m).
Proof. exact cll_decode_p_total. Qed.
Print Assumptions C16_sei_DecodeContentLightLevelInformationSEI_total.

(* ------------------------------------------------------------------ sei136.go / sei1_avc.go
   (no index or slice expression in the decoders: the C17 models are used as they are) *)
Theorem C16_sei_DecodeTimeCodeSEI_total : forall payload : list N,
  tc_decode payload = Err \/
  exists cs, tc_decode payload = Ok cs /\ lenN cs <= 3 /\
             exists r, tc_string_accesses cs = Ok r /\ length r = length cs.
Proof. exact tc_decode_total. Qed.
Print Assumptions C16_sei_DecodeTimeCodeSEI_total.

(* TimeCodeSEI.String (text repaired by bfe4f2e) is in range for every value, decoded or not *)
Theorem C16_sei_TimeCodeSEI_String_total : forall cs : list clock,
  exists r, tc_string_accesses cs = Ok r /\ length r = length cs.
Proof. exact tc_string_total. Qed.
Print Assumptions C16_sei_TimeCodeSEI_String_total.

(* the pinned text indexed Clocks[0] of a decoded message without clock time stamps *)
Theorem C16_sei_TimeCodeSEI_String_pinned_refuted :
  exists payload cs, tc_decode payload = Ok cs /\ tc_string_accesses_pinned cs = Panic.
Proof. exact tc_string_pinned_refuted. Qed.
Print Assumptions C16_sei_TimeCodeSEI_String_pinned_refuted.

(* every payload and EVERY external parameter: nil or any CbpDbpDelay length fields, any time offset
   length; PicTimingAvcSEI.String's Clocks[0], Clocks[1..] are in range on the decoded value *)
Theorem C16_sei_DecodePicTimingAvcSEIHRD_total :
  forall (ext : option hrd_delay) (tolen : N) (payload : list N),
  pt_decode ext tolen payload = Err \/
  exists m, pt_decode ext tolen payload = Ok m /\ 1 <= lenN (p_clocks m) <= 3 /\
            exists r, pt_string_accesses m = Ok r /\ length r = length (p_clocks m).
Proof. exact pt_decode_total. Qed.
Print Assumptions C16_sei_DecodePicTimingAvcSEIHRD_total.

(* ------------------------------------------------------------------ aac (C18 models; the Go text has no
   index or slice expression: reads go through bits.Reader, FrequencyTable is a map) *)
(* every byte list: the counted scan returns what the C18 model returns; at most 188 iterations of the
   junk scan and 2 Read(8) calls per iteration, also past the end of the input; Ok or Err *)
Theorem C16_aac_DecodeADTSHeader_total : forall data : list N,
  exists t r, decode_adts_t data = (C18Model.decode_adts data, t, r) /\ t <= 188 /\ r <= 2 * t /\
    (C18Model.decode_adts data = Err \/
     exists h off, C18Model.decode_adts data = Ok (h, off) /\ (0 <= off <= 376)%Z).
Proof. exact decode_adts_t_total. Qed.
Print Assumptions C16_aac_DecodeADTSHeader_total.

Theorem C16_aac_DecodeAudioSpecificConfig_total : forall data : list N,
  C18Model.decode_asc data = Err \/ exists a, C18Model.decode_asc data = Ok a.
Proof. exact decode_asc_total. Qed.
Print Assumptions C16_aac_DecodeAudioSpecificConfig_total.

(* ------------------------------------------------------------------ Annex B scanners (C14 models: partial
   getb / slice / copy_into, every loop on fuel S |input| with one unit of fuel per iteration, so "not
   OutOfFuel" is "at most |input| + 1 iterations of each loop") *)
(* the word-at-a-time start-code scanner, every BYTE list (the zero-byte word trick is about bytes):
   lifted from C14 scanner_eq_naive *)
Theorem C16_avc_getStartCodePositions_total : forall l : list N,
  bytes_ok l = true ->
  exists scl m, C14Model.get_start_code_positions l = Ok (scl, m) /\ lenN scl <= lenN l /\ (m = 3 \/ m = 4)%Z.
Proof. exact get_start_code_positions_total. Qed.
Print Assumptions C16_avc_getStartCodePositions_total.

(* every byte list, any mix or adjacency of start codes (not only the well-formed streams of C14) *)
Theorem C16_avc_ConvertByteStreamToNaluSample_total : forall l : list N,
  bytes_ok l = true ->
  exists out, C14Model.to_nalu_sample l = Ok out /\ lenN out <= 5 * lenN l.
Proof. exact to_nalu_sample_total. Qed.
Print Assumptions C16_avc_ConvertByteStreamToNaluSample_total.

(* EVERY list, no hypothesis *)
Theorem C16_avc_ExtractNalusFromByteStream_total : forall d : list N,
  exists nalus, C14Model.extract_nalus_from_byte_stream d = Ok nalus /\ lenN nalus <= lenN d.
Proof. exact (fun d => val_ok (extract_nalus_from_byte_stream_total d)). Qed.
Print Assumptions C16_avc_ExtractNalusFromByteStream_total.

(* the other helpers on the shared byte-stream loop: EVERY list, no hypothesis; every index / slice
   expression of the loop bodies and of the code after the loop is in range *)
Theorem C16_avc_GetFirstAVCVideoNALUFromByteStream_total : forall d : list N,
  exists nalu, C14Model.avc_get_first_video_nalu d = Ok nalu /\ lenN nalu <= lenN d.
Proof. exact (fun d => val_ok (avc_get_first_video_nalu_total d)). Qed.
Print Assumptions C16_avc_GetFirstAVCVideoNALUFromByteStream_total.

Theorem C16_avc_ExtractNalusOfTypeFromByteStream_total : forall (want : N) (stop : bool) (d : list N),
  exists nalus, C14Model.avc_extract_nalus_of_type want stop d = Ok nalus /\ lenN nalus <= lenN d.
Proof. exact (fun want stop d => val_ok (extract_nalus_of_type_total C14Spec.avc_type 6 want stop d)). Qed.
Print Assumptions C16_avc_ExtractNalusOfTypeFromByteStream_total.

Theorem C16_hevc_ExtractNalusOfTypeFromByteStream_total : forall (want : N) (stop : bool) (d : list N),
  exists nalus, C14Model.hevc_extract_nalus_of_type want stop d = Ok nalus /\ lenN nalus <= lenN d.
Proof. exact (fun want stop d => val_ok (extract_nalus_of_type_total C14Spec.hevc_type 32 want stop d)). Qed.
Print Assumptions C16_hevc_ExtractNalusOfTypeFromByteStream_total.

Theorem C16_avc_GetParameterSetsFromByteStream_total : forall d : list N,
  exists v s p, C14Model.avc_get_parameter_sets_from_byte_stream d = Ok (v, s, p) /\
                lenN v + lenN s + lenN p <= lenN d.
Proof. exact (get_parameter_sets_from_byte_stream_total_N C14Spec.avc_type C14Model.avc_ps_class 6). Qed.
Print Assumptions C16_avc_GetParameterSetsFromByteStream_total.

Theorem C16_hevc_GetParameterSetsFromByteStream_total : forall d : list N,
  exists v s p, C14Model.hevc_get_parameter_sets_from_byte_stream d = Ok (v, s, p) /\
                lenN v + lenN s + lenN p <= lenN d.
Proof. exact (get_parameter_sets_from_byte_stream_total_N C14Spec.hevc_type C14Model.hevc_ps_class 32). Qed.
Print Assumptions C16_hevc_GetParameterSetsFromByteStream_total.

(* ------------------------------------------------------------------ the models compute on hostile inputs *)
(* known_findings/C16.json F5: SEI NAL payload 04 00 (type 4, size 0) reaches the registered decoder with an
   empty payload; an unregistered payload shorter than the UUID *)
Example ex_F5_registered_empty :
  extract_sei_data [4; 0; 128] = XOk [(4, [])] /\ decode_registered_p [] = Err /\
  extract_cea608_p [1; 2; 3] = Err /\ parse_cea608_p [] = Err /\ decode_unregistered_p [1; 2; 3] = Err.
Proof. vm_compute. repeat split. Qed.

(* F6: DecodeTimeCodeSEI(payload 00).String() *)
Example ex_F6_timecode_no_clock :
  tc_decode [0] = Ok [] /\ tc_string_accesses [] = Ok [] /\ tc_string_accesses_pinned [] = Panic.
Proof. vm_compute. repeat split. Qed.

(* cc_count 31 with one triple present: one iteration, then the length check fails;
   cc_count 1 with a valid field-1 pair *)
Example ex_cea608 :
  parse_cea608_p [255; 0; 252; 1; 2] = Err /\
  parse_cea608_p [193; 255; 252; 65; 66; 255] = Ok ([65; 66], [], 1) /\
  decode_registered_p [181; 0; 49; 71; 65; 57; 52; 3; 193; 255; 253; 65; 66; 255]
    = Ok (mkPass (KCea608 [] [65; 66]) [181; 0; 49; 71; 65; 57; 52; 3; 193; 255; 253; 65; 66; 255], 1).
Proof. vm_compute. repeat split. Qed.

(* a size field of 4 * 255 + 7 = 1027 in a 6-byte input: Go allocates 1027 bytes and loops 1027 times,
   then returns the error; 5 reads by the 0xFF-run loops *)
Example ex_extract_hostile_size :
  extract_sei_data_go [5; 255; 255; 255; 255; 7] = (XErr, mkCost [1027] 6 1027).
Proof. vm_compute. reflexivity. Qed.

Example ex_extract_two_messages :
  extract_sei_data_go [5; 2; 10; 11; 1; 1; 9; 128] = (XOk [(5, [10; 11]); (1, [9])], mkCost [2; 1] 4 3).
Proof. vm_compute. reflexivity. Qed.

Example ex_short_fixed_layouts :
  mdcv_decode_p [1; 2; 3] = Err /\ cll_decode_p [0; 1; 0; 2; 0] = Err /\ cll_decode_p [0; 1; 0; 2] = Ok (mkCll 1 2).
Proof. vm_compute. repeat split. Qed.

(* pict_struct 0 (one clock), clock_timestamp_flag 0; external time offset length 255 *)
Example ex_pic_timing_any_parameter :
  pt_decode None 255 [0] = Ok (mkPT None 255 0 [clock_avc_zero 255]) /\
  pt_decode (Some (mkHrd 0 0 0 255 255)) 255 [0] = Err.
Proof. vm_compute. repeat split. Qed.

(* ADTS: empty input and 400 bytes of ff (never a sync word: layer = 3): 188 iterations, Err;
   two junk bytes, then a header *)
Example ex_adts_scan :
  decode_adts_t [] = (Err, 188, 188) /\
  decode_adts_t (repeat 255 400) = (Err, 188, 189) /\
  decode_adts_t [1; 2; 255; 241; 76; 128; 1; 31; 252] =
    (Ok (C18Model.mkAdts 0 2 3 2 7 1 2047, 2%Z), 3, 4).
Proof. vm_compute. repeat split. Qed.

Example ex_asc : C18Model.decode_asc [] = Err /\ C18Model.decode_asc [255] = Err /\
  C18Model.decode_asc [17; 144] = Ok (C18Model.mkAsc 2 2 48000%Z 0%Z false false).
Proof. vm_compute. repeat split. Qed.

(* adjacent start codes (a zero-length unit, F16), a start code at the very end, zeros only *)
Example ex_annexb_hostile :
  C14Model.extract_nalus_from_byte_stream [0; 0; 1; 0; 0; 1; 104; 232] = Ok [[]; [104; 232]] /\
  C14Model.extract_nalus_from_byte_stream [0; 0; 1] = Ok [] /\
  C14Model.to_nalu_sample [0; 0; 1; 0; 0; 1; 104; 232] = Ok [0; 0; 0; 0; 0; 0; 0; 2; 104; 232] /\
  C14Model.to_nalu_sample [0; 0; 0; 0; 0; 0; 0; 0; 0; 0; 0; 0; 0; 0; 0; 0; 0; 0; 0; 1] =
    Ok [0; 0; 0; 0; 0; 0; 0; 0; 0; 0; 0; 0; 0; 0; 0; 0; 0; 0; 0; 1].
Proof. vm_compute. repeat split. Qed.

(* ------------------------------------------------------------------ String / Payload of the remaining messages
   (C16SeiStrModel.v).  The Payload methods of sei137.go / sei144.go fill a fixed buffer through sub-slices at a
   running position: every slice expression is in range for EVERY message value, and the bytes are those of the C17
   model; composed with the decoders for every payload. *)
Theorem C16_sei_MasteringDisplayColourVolume_Payload_total : forall m : mdcv,
  mdcv_payload_p m = Ok (mdcv_payload m) /\ lenN (mdcv_payload m) = 24.
Proof. exact mdcv_payload_p_ok. Qed.
Print Assumptions C16_sei_MasteringDisplayColourVolume_Payload_total.

Theorem C16_sei_ContentLightLevel_Payload_total : forall m : cll,
  cll_payload_p m = Ok (cll_payload m) /\ lenN (cll_payload m) = 4.
Proof. exact cll_payload_p_ok. Qed.
Print Assumptions C16_sei_ContentLightLevel_Payload_total.

Theorem C16_sei_MDCV_decode_then_Payload_total : forall p : list N,
  mdcv_decode_p p = Err \/ exists m, mdcv_decode_p p = Ok m /\ mdcv_payload_p m = Ok (mdcv_payload m).
Proof. exact mdcv_decode_payload_total. Qed.
Print Assumptions C16_sei_MDCV_decode_then_Payload_total.

Theorem C16_sei_CLL_decode_then_Payload_total : forall p : list N,
  cll_decode_p p = Err \/ exists m, cll_decode_p p = Ok m /\ cll_payload_p m = Ok (cll_payload m).
Proof. exact cll_decode_payload_total. Qed.
Print Assumptions C16_sei_CLL_decode_then_Payload_total.

(* String of what the user-data decoders return, for EVERY payload: no partial operation fails (payload[16:] of the
   unregistered message) and the text rendered (hex / %q / %d fields) is at most 4 bytes per payload byte + 200 *)
Theorem C16_sei_RegisteredSEI_String_total : forall pl : list N,
  decode_registered_p pl = Err \/
  exists m t c, decode_registered_p pl = Ok (m, t) /\ pass_string_cost m = Ok c /\ c <= 2 * lenN pl + 200.
Proof. exact registered_string_total. Qed.
Print Assumptions C16_sei_RegisteredSEI_String_total.

Theorem C16_sei_UnregisteredSEI_String_total : forall pl : list N,
  decode_unregistered_p pl = Err \/
  exists m c, decode_unregistered_p pl = Ok m /\ pass_string_cost m = Ok c /\ c <= 4 * lenN pl + 200.
Proof. exact unregistered_string_total. Qed.
Print Assumptions C16_sei_UnregisteredSEI_String_total.

Theorem C16_sei_SEIData_String_linear : forall pl : list N, sei_data_string_cost pl <= 2 * lenN pl + 100.
Proof. exact sei_data_string_bound. Qed.
Print Assumptions C16_sei_SEIData_String_linear.

Example ex_mdcv_payload :
  mdcv_payload_p (mkMdcv 1 2 3 4 5 6 7 8 65536 70000) =
    Ok [0; 1; 0; 2; 0; 3; 0; 4; 0; 5; 0; 6; 0; 7; 0; 8; 0; 1; 0; 0; 0; 1; 17; 112] /\
  (* the slicing is partial: the same writes into a 23-byte buffer panic *)
  put_at (repeat 0 23) 20 4 [0; 0; 0; 0] = Panic.
Proof. vm_compute. split; reflexivity. Qed.

(* ------------------------------------------------------------------ Payload through bits.FixedSliceWriter
   (C16SeiFswModel.v: sei136.go TimeCodeSEI.Payload, sei1_avc.go PicTimingAvcSEI.Payload).  The writer is the Go
   struct {buf, off, n, v, accError}; make / buf[off] = b / buf[:off] are PARTIAL operations, the `for sw.n >= 8`
   loop runs on fuel.  For EVERY capacity >= 0 and EVERY sequence of WriteBits / WriteFlag / FlushBits calls
   (any value, any width: 256-bit writes included) the run ends without Panic and without running out of fuel and
   returns at most `capacity` bytes; the second component is accError, which the Payload methods never look at. *)
Theorem C16_bits_FixedSliceWriter_total : forall (cap : Z) (ops : list wop), (0 <= cap)%Z ->
  exists bs e, fsw_payload_p cap ops = Ok (bs, e) /\ (lenZ bs <= cap)%Z.
Proof. exact (fun cap ops H => val_ok2 (fsw_payload_total cap ops H)). Qed.
Print Assumptions C16_bits_FixedSliceWriter_total.

(* EVERY message value (any number of clocks, every field any number: the Go fields are bytes / uint16 / uint32 / uint):
   Payload() returns at most Size() bytes, and Size() is linear in the number of clocks and the length fields
   (grouped: every Print Assumptions costs about a second of the quick tier) *)
Theorem C16_sei_FixedSliceWriter_Payloads_total :
  (forall cs : list clock,
     exists bs e, tc_payload_p cs = Ok (bs, e) /\ lenN bs <= tc_size cs /\
                  8 * tc_size cs <= 9 + 44 * lenN cs + sumN (map c_tolen cs)) /\
  (forall m : pic_timing,
     exists bs e, pt_payload_p m = Ok (bs, e) /\ lenN bs <= pt_size m /\
                  8 * pt_size m <= hrd_bits (p_hrd m) + 11 + 40 * lenN (p_clocks m) + sumN (map a_tolen (p_clocks m))).
Proof. exact (conj tc_payload_total pt_payload_total). Qed.
Print Assumptions C16_sei_FixedSliceWriter_Payloads_total.

(* every payload (and every external parameter): decode, then Payload() of the decoded message *)
Theorem C16_sei_decode_then_FixedSliceWriter_Payload_total :
  (forall payload : list N,
     tc_decode_payload_p payload = Err \/
     exists k bs e, tc_decode_payload_p payload = Ok (k, bs, e) /\ k <= 3) /\
  (forall (ext : option hrd_delay) (tolen : N) (payload : list N),
     pt_decode_payload_p ext tolen payload = Err \/
     exists k bs e, pt_decode_payload_p ext tolen payload = Ok (k, bs, e) /\ 1 <= k <= 3).
Proof. exact (conj tc_decode_payload_total pt_decode_payload_total). Qed.
Print Assumptions C16_sei_decode_then_FixedSliceWriter_Payload_total.

(* the buffer operations are partial: the same byte written at off = len(buf) panics without WriteUint8's check;
   a 256-bit and a 255-bit field in a picture timing value (length fields 255 / 254): 65 bytes, no error;
   a time code whose bits end on a byte boundary: the final 1 bit finds the buffer full (accError, no panic) *)
Example ex_fsw_partial :
  pupd [0; 0] 2 7 = Panic /\ fsw_new (-1) = Panic /\
  (exists bs, pt_payload_p (mkPT (Some (mkHrd 5 6 0 255 254)) 0 3 [clock_avc_zero 255]) = Ok (bs, false) /\ lenN bs = 65) /\
  tc_payload_p [mkClock true false 0 false false false 0 false 0 false 0 false 0 5 1] = Ok ([96; 0; 0; 161], true) /\
  tc_decode_payload_p [96; 64; 65; 152; 180; 16] = Ok (1, [96; 64; 65; 152; 180; 16], false).
Proof. vm_compute. repeat split. eexists; split; reflexivity. Qed.

(* ... and the bytes are those of C17's total model of the same writer (C17TypedModel.fsw_bytes: the C13 plain bit
   writer on an unbounded output, cut at the capacity), for every capacity and every sequence of writes whose values
   fit Go's uint (op_u64: value < 2^64; the widths are arbitrary): the C17 theorems about tc_payload / pt_payload
   (round trip, Size) are theorems about what the partial writer returns.  C16SeiFswTieProofs.v: simulation
   "buf[:off] = output so far" while accError is nil, "buf = the first `capacity` bytes of the output" after it. *)
Theorem C16_bits_FixedSliceWriter_is_C17 : forall (cap : N) (ops : list wop) (bs : list N) (e : bool),
  forallb op_u64 ops = true -> fsw_payload_p (Z.of_N cap) ops = Ok (bs, e) -> bs = fsw_bytes cap ops.
Proof. exact fsw_payload_is_fsw_bytes. Qed.
Print Assumptions C16_bits_FixedSliceWriter_is_C17.

Theorem C16_sei_FixedSliceWriter_Payloads_are_C17 :
  (forall cs : list clock, forallb op_u64 (tc_ops cs) = true -> exists e, tc_payload_p cs = Ok (tc_payload cs, e)) /\
  (forall m : pic_timing, forallb op_u64 (pt_ops m) = true -> exists e, pt_payload_p m = Ok (pt_payload m, e)).
Proof. exact (conj tc_payload_is_c17 pt_payload_is_c17). Qed.
Print Assumptions C16_sei_FixedSliceWriter_Payloads_are_C17.

(* the hypothesis holds of hostile values: length fields 255 / 254 / 255, a negative time offset (uint(int) = 2^64 - 3) *)
Example ex_fsw_op_u64 :
  forallb op_u64 (pt_ops (mkPT (Some (mkHrd 5 (two64 - 1) 0 255 254)) 0 3
                               [mkClockAvc true 3 true 31 false true true 255 true 63 true 63 true 31 255 (-3)%Z])) = true /\
  forallb op_u64 (tc_ops [mkClock true true 31 true true true 511 false 63 false 63 false 31 255 4294967295]) = true.
Proof. vm_compute. split; reflexivity. Qed.
