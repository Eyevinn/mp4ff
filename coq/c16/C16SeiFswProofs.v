(* C16SeiFswProofs.v — TimeCodeSEI.Payload / PicTimingAvcSEI.Payload through the partial model of
   bits.FixedSliceWriter (C16SeiFswModel.v): for EVERY capacity >= 0 and EVERY sequence of writes no index or
   slice expression fails, the bit loop ends, the result is at most `capacity` bytes.  The invariant is
   0 <= off <= len(buf) = capacity and 0 <= n < 8 between two calls. *)
From V.lib Require Import Base.
From V.c13 Require Import C13Model.
From V.c17 Require Import C17TypedModel.
From V.c16 Require Import C16ResProofs C16AuxModel C16SeiFswModel C16AuxSeiProofs.

Definition good (cap : Z) (s : fsw) : Prop :=
  (0 <= f_off s <= lenZ (f_buf s))%Z /\ lenZ (f_buf s) = cap /\ (0 <= f_n s < 8)%Z.

(* the same without the bound on n (inside WriteBits) *)
Definition good0 (cap : Z) (s : fsw) : Prop :=
  (0 <= f_off s <= lenZ (f_buf s))%Z /\ lenZ (f_buf s) = cap /\ (0 <= f_n s)%Z.

Lemma pupd_ok l i b : (0 <= i < lenZ l)%Z ->
  exists l', pupd l i b = Ok l' /\ lenZ l' = lenZ l.
Proof.
  intros H. unfold pupd.
  replace ((0 <=? i) && (i <? lenZ l))%Z with true by (symmetry; apply andb_true_intro; split; [apply Z.leb_le|apply Z.ltb_lt]; lia).
  eexists; split; [reflexivity|].
  unfold lenZ in *. rewrite app_length. cbn [length]. rewrite firstn_length, skipn_length.
  assert (Z.to_nat i < length l)%nat by lia. rewrite Nat.min_l by lia. set (k := Z.to_nat i) in *. clearbody k. lia.
Qed.

Lemma good_good0 cap s : good cap s -> good0 cap s.
Proof. unfold good, good0. intuition lia. Qed.

Lemma fsw_u8_ok cap s b : good0 cap s ->
  val false (fun s' => good0 cap s' /\ f_n s' = f_n s) (fsw_u8 s b).
Proof.
  intros (Ho & Hl & Hn). unfold fsw_u8, good0.
  destruct (f_off s + 1 >? lenZ (f_buf s))%Z eqn:E; [cbn [val f_off f_buf f_n]; intuition lia|].
  destruct (pupd_ok (f_buf s) (f_off s) b) as (l' & -> & L1); [lia|].
  cbn [rbind val f_off f_buf f_n]. intuition lia.
Qed.

(* one byte leaves per round, so fuel n/8 + 1 is enough *)
Lemma fsw_drain_ok cap : forall fuel s, good0 cap s -> (Z.to_nat (f_n s / 8) < fuel)%nat ->
  val false (good cap) (fsw_drain fuel s).
Proof.
  induction fuel as [|f IH]; intros s G Hf; [lia|].
  cbn [fsw_drain]. destruct (8 <=? f_n s)%Z eqn:E.
  - apply (val_bind (fsw_u8_ok cap s _ G)). intros s1 ((A & B & C) & N1). apply IH.
    + unfold good0. cbn [f_off f_buf f_n]. intuition lia.
    + cbn [f_n]. rewrite N1. lia.
  - destruct G as (A & B & C). unfold good. cbn [val]. intuition lia.
Qed.

Lemma fsw_bits_ok cap s b n : good cap s -> val false (good cap) (fsw_bits s b n).
Proof.
  intros G. unfold fsw_bits. destruct (f_err s); [exact G|]. cbv zeta.
  apply (val_bind (Q := good cap)); [|exact (fun s2 G2 => G2)].
  destruct G as (A & B & C). apply fsw_drain_ok; [unfold good0|]; cbn [f_off f_buf f_n]; intuition lia.
Qed.

Lemma fsw_flush_ok cap s : good cap s -> val false (good cap) (fsw_flush s).
Proof.
  intros G. unfold fsw_flush. destruct (f_err s); [exact G|]. destruct (f_n s =? 0)%Z; [exact G|].
  apply (val_weaken (fsw_u8_ok cap s _ (good_good0 cap s G))).
  destruct G as (_ & _ & C). intros s1 ((A1 & B1 & C1) & N1). unfold good. intuition lia.
Qed.

Lemma fsw_step_ok cap s o : good cap s -> val false (good cap) (fsw_step s o).
Proof.
  intros G. destruct o; cbn [fsw_step]; try exact G; [apply fsw_bits_ok|apply fsw_bits_ok|apply fsw_flush_ok]; exact G.
Qed.

Lemma fsw_run_ok cap : forall ops s, good cap s -> val false (good cap) (fsw_run s ops).
Proof.
  induction ops as [|o t IH]; intros s G; cbn [fsw_run]; [exact G|].
  exact (val_bind (fsw_step_ok cap s o G) (IH)).
Qed.

Lemma fsw_new_ok cap : (0 <= cap)%Z -> val false (good cap) (fsw_new cap).
Proof.
  intros H. unfold fsw_new. replace (cap <? 0)%Z with false by (symmetry; apply Z.ltb_ge; lia).
  unfold good, lenZ. cbn. rewrite repeat_length. lia.
Qed.

Lemma fsw_bytes_ok cap s : good cap s -> val false (fun bs => (lenZ bs <= cap)%Z) (fsw_bytes_p s).
Proof.
  intros (A & B & C). unfold fsw_bytes_p, pslice.
  replace ((0 <=? 0) && (0 <=? f_off s) && (f_off s <=? lenZ (f_buf s)))%Z with true
    by (symmetry; repeat (apply andb_true_intro; split); apply Z.leb_le; lia).
  unfold lenZ in *. cbn [val]. rewrite firstn_length. cbn [skipn Z.to_nat]. lia.
Qed.

(* every capacity >= 0, every sequence of writes *)
Lemma fsw_payload_total cap ops : (0 <= cap)%Z ->
  val false (fun r => (lenZ (fst r) <= cap)%Z) (fsw_payload_p cap ops).
Proof.
  intros H. unfold fsw_payload_p.
  apply (val_bind (fsw_new_ok cap H)). intros s0 G0.
  apply (val_bind (fsw_run_ok cap ops s0 G0)). intros s1 G1.
  apply (val_bind (fsw_flush_ok cap s1 G1)). intros s2 G2.
  apply (val_bind (fsw_bytes_ok cap s2 G2)). intros bs L. exact L.
Qed.

(* ------------------------------------------------------------------ Size() is linear in the number of clocks *)
Lemma hms_nrbits_le full sf mf hf : hms_nrbits full sf mf hf <= 20.
Proof. unfold hms_nrbits. destruct full, sf, mf, hf; cbn; lia. Qed.

Lemma tc_bits_le : forall cs, sumN (map clock_nrbits cs) <= 44 * lenN cs + sumN (map c_tolen cs).
Proof.
  induction cs as [|c t IH]; [cbn; lia|].
  cbn [map sumN]. rewrite lenN_cons.
  assert (clock_nrbits c <= 44 + c_tolen c).
  { unfold clock_nrbits. pose proof (hms_nrbits_le (c_full c) (c_secflag c) (c_minflag c) (c_hrflag c)).
    destruct (c_flag c); lia. }
  lia.
Qed.

Lemma pt_bits_le : forall cs, sumN (map clock_avc_nrbits cs) <= 40 * lenN cs + sumN (map a_tolen cs).
Proof.
  induction cs as [|c t IH]; [cbn; lia|].
  cbn [map sumN]. rewrite lenN_cons.
  assert (clock_avc_nrbits c <= 40 + a_tolen c).
  { unfold clock_avc_nrbits. pose proof (hms_nrbits_le (a_full c) (a_secflag c) (a_minflag c) (a_hrflag c)).
    destruct (a_flag c); lia. }
  lia.
Qed.

(* TimeCodeSEI.Payload(): EVERY message value *)
Lemma tc_payload_total cs :
  exists bs e, tc_payload_p cs = Ok (bs, e) /\ lenN bs <= tc_size cs /\
               8 * tc_size cs <= 9 + 44 * lenN cs + sumN (map c_tolen cs).
Proof.
  destruct (val_ok2 (fsw_payload_total (Z.of_N (tc_size cs)) (tc_ops cs) ltac:(lia))) as (bs & e & E & L). cbn [fst] in L.
  exists bs, e. split; [exact E|]. split.
  - unfold lenZ, lenN in *. lia.
  - unfold tc_size. pose proof (tc_bits_le cs). lia.
Qed.

Definition hrd_bits (h : option hrd_delay) : N :=
  match h with Some h => (h_cpb_len1 h + 1) + (h_dpb_len1 h + 1) | None => 0 end.

(* PicTimingAvcSEI.Payload(): EVERY message value *)
Lemma pt_payload_total m :
  exists bs e, pt_payload_p m = Ok (bs, e) /\ lenN bs <= pt_size m /\
               8 * pt_size m <= hrd_bits (p_hrd m) + 11 + 40 * lenN (p_clocks m) + sumN (map a_tolen (p_clocks m)).
Proof.
  destruct (val_ok2 (fsw_payload_total (Z.of_N (pt_size m)) (pt_ops m) ltac:(lia))) as (bs & e & E & L). cbn [fst] in L.
  exists bs, e. split; [exact E|]. split.
  - unfold lenZ, lenN in *. lia.
  - unfold pt_size, hrd_bits. pose proof (pt_bits_le (p_clocks m)). destruct (p_hrd m); lia.
Qed.

(* decode EVERY payload, then Payload() *)
Lemma tc_decode_payload_total payload :
  tc_decode_payload_p payload = Err \/
  exists k bs e, tc_decode_payload_p payload = Ok (k, bs, e) /\ k <= 3.
Proof.
  unfold tc_decode_payload_p.
  destruct (tc_decode_total payload) as [E|(cs & E & L & _)]; rewrite E; cbn [rbind]; [left; reflexivity|].
  destruct (tc_payload_total cs) as (bs & e & E1 & _). rewrite E1. cbn [rbind fst snd].
  right. exists (lenN cs), bs, e. split; [reflexivity|exact L].
Qed.

Lemma pt_decode_payload_total ext tolen payload :
  pt_decode_payload_p ext tolen payload = Err \/
  exists k bs e, pt_decode_payload_p ext tolen payload = Ok (k, bs, e) /\ 1 <= k <= 3.
Proof.
  unfold pt_decode_payload_p.
  destruct (pt_decode_total ext tolen payload) as [E|(m & E & L & _)]; rewrite E; cbn [rbind]; [left; reflexivity|].
  destruct (pt_payload_total m) as (bs & e & E1 & _). rewrite E1. cbn [rbind fst snd].
  right. exists (lenN (p_clocks m)), bs, e. split; [reflexivity|exact L].
Qed.
