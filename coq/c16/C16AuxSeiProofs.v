(* C16AuxSeiProofs.v — totality of the typed SEI decoders (C17 models, imported read-only) and of the
   partial-indexing wrappers of C16AuxModel.v:
     - the wrappers (`_p`: Go's index / slice expressions as PARTIAL operations) never return Panic, for
       every payload, and return exactly what the C17 model returns (so the C17 correspondence and
       round-trip theorems carry over to them);
     - DecodeTimeCodeSEI / DecodePicTimingAvcSEIHRD (no index or slice expression in the Go text: all
       reads go through bits.Reader over an io.Reader; shift counts are non-negative) return Ok or Err
       with at most 3 clocks, for every payload and every external parameter;
     - the index accesses of TimeCodeSEI.String (repaired text) and PicTimingAvcSEI.String are in range
       for every decoded value; the pinned TimeCodeSEI.String is refuted.
   No axioms. *)
From V.lib Require Import Base.
From V.c13 Require Import C13Model C13Bits.
From V.c17 Require Import C17Spec C17Model C17TypedModel.
From V.c16 Require Import C16AuxModel.

(* ------------------------------------------------------------------ Ok-or-Err *)
Definition okerr {A} (r : res A) : Prop :=
  match r with Ok _ => True | Err => True | Panic => False | OutOfFuel => False end.

Lemma okerr_inv {A} (r : res A) : okerr r -> r = Err \/ exists a, r = Ok a.
Proof. destruct r; cbn; intros H; try contradiction; eauto. Qed.

Lemma okerr_bind {A B} (r : res A) (f : A -> res B) :
  okerr r -> (forall a, okerr (f a)) -> okerr (rbind r f).
Proof. destruct r; cbn; intros H Hf; try contradiction; auto. Qed.

Lemma okerr_rmap {A B} (g : A -> B) (r : res A) : okerr (rmap g r) <-> okerr r.
Proof. destruct r; cbn; tauto. Qed.

(* ------------------------------------------------------------------ partial primitives in range *)
Lemma lenZ_lenN {A} (l : list A) : lenZ l = Z.of_N (lenN l).
Proof. unfold lenZ, lenN. lia. Qed.

Lemma lenZ_ltb {A} (l : list A) k : (lenZ l <? Z.of_nat k)%Z = (length l <? k)%nat.
Proof. unfold lenZ. destruct (Nat.ltb_spec (length l) k); [apply Z.ltb_lt|apply Z.ltb_ge]; lia. Qed.

Lemma lenZ_eqb {A} (l : list A) k : (lenZ l =? Z.of_N k)%Z = (lenN l =? k).
Proof. unfold lenZ, lenN. destruct (N.eqb_spec (N.of_nat (length l)) k); [apply Z.eqb_eq|apply Z.eqb_neq]; lia. Qed.

Lemma pidx_ok {A} (l : list A) (i : Z) (d : A) :
  (0 <= i < lenZ l)%Z -> pidx l i = Ok (nth (Z.to_nat i) l d).
Proof.
  intros H. unfold pidx.
  replace ((0 <=? i) && (i <? lenZ l))%Z with true by (symmetry; apply andb_true_iff; split; lia).
  rewrite (nth_error_nth' l d) by (unfold lenZ in H; lia). reflexivity.
Qed.

Lemma pidx_ok_ex {A} (l : list A) (i : Z) :
  (0 <= i < lenZ l)%Z -> exists x, pidx l i = Ok x.
Proof.
  intros H. destruct l as [|d t]; [unfold lenZ in H; cbn in H; lia|].
  eexists. apply (pidx_ok _ _ d H).
Qed.

Lemma pslice_ok {A} (l : list A) (lo hi : Z) :
  (0 <= lo <= hi)%Z -> (hi <= lenZ l)%Z ->
  pslice l lo hi = Ok (firstn (Z.to_nat (hi - lo)) (skipn (Z.to_nat lo) l)).
Proof.
  intros H1 H2. unfold pslice.
  replace ((0 <=? lo) && (lo <=? hi) && (hi <=? lenZ l))%Z with true; [reflexivity|].
  symmetry. rewrite !andb_true_iff. repeat split; lia.
Qed.

Lemma pslice_to_end {A} (l : list A) (lo : Z) :
  (0 <= lo <= lenZ l)%Z -> pslice l lo (lenZ l) = Ok (skipn (Z.to_nat lo) l).
Proof.
  intros H. rewrite pslice_ok by lia. f_equal. apply firstn_all2.
  rewrite skipn_length. unfold lenZ. lia.
Qed.

Lemma be16_p_firstn l : (2 <= length l)%nat -> be16_p (firstn 2 l) = Ok (be_val (firstn 2 l) 0).
Proof. destruct l as [|x [|y t]]; cbn [length]; intros H; try lia. reflexivity. Qed.

Lemma be32_p_firstn l : (4 <= length l)%nat -> be32_p (firstn 4 l) = Ok (be_val (firstn 4 l) 0).
Proof. destruct l as [|x [|y [|z [|w t]]]]; cbn [length]; intros H; try lia. reflexivity. Qed.

(* ================================================================== ParseCEA608 *)
Definition rtick {A} (r : res A) (t : N) : res (A * N) := rmap (fun a => (a, t)) r.

Lemma okerr_cea608_loop k : forall pl pos f1 f2, okerr (cea608_loop k pl pos f1 f2).
Proof.
  induction k as [|k IH]; intros pl pos f1 f2; cbn [cea608_loop]; [exact I|].
  destruct (length pl <? pos + 3)%nat; [exact I|].
  repeat match goal with |- okerr (if ?b then _ else _) => destruct b end; apply IH.
Qed.

(* the wrapper's loop = the C17 loop, with k iterations counted *)
Lemma cea608_loop_p_spec k : forall pl pos f1 f2 t,
  cea608_loop_p k pl (Z.of_nat pos) f1 f2 t = rtick (cea608_loop k pl pos f1 f2) (t + N.of_nat k).
Proof.
  induction k as [|k IH]; intros pl pos f1 f2 t; cbn [cea608_loop_p cea608_loop].
  - unfold rtick, rmap. repeat f_equal. lia.
  - replace (Z.of_nat pos + 3)%Z with (Z.of_nat (pos + 3)) by lia. rewrite lenZ_ltb.
    destruct (Nat.ltb_spec (length pl) (pos + 3)) as [Hlt|Hge]; [reflexivity|].
    rewrite (pidx_ok pl (Z.of_nat pos) 0) by (unfold lenZ; lia).
    rewrite (pidx_ok pl (Z.of_nat pos + 1) 0) by (unfold lenZ; lia).
    rewrite (pidx_ok pl (Z.of_nat pos + 2) 0) by (unfold lenZ; lia).
    cbn [rbind].
    replace (Z.to_nat (Z.of_nat pos)) with pos by lia.
    replace (Z.to_nat (Z.of_nat pos + 1)) with (pos + 1)%nat by lia.
    replace (Z.to_nat (Z.of_nat pos + 2)) with (pos + 2)%nat by lia.
    replace (Z.of_nat pos + 3)%Z with (Z.of_nat (pos + 3)) by lia.
    replace (t + N.of_nat (S k)) with (t + 1 + N.of_nat k) by lia.
    unfold nthb.
    repeat match goal with |- context [if ?b then _ else _] => destruct b end; apply IH.
Qed.

(* every Ok result ran k iterations over k complete 3-byte triples and appended at most 2k bytes *)
Lemma cea608_loop_bounds k : forall pl pos f1 f2 a b,
  cea608_loop k pl pos f1 f2 = Ok (a, b) ->
  (k = O \/ pos + 3 * k <= length pl)%nat /\ (length a + length b <= length f1 + length f2 + 2 * k)%nat.
Proof.
  induction k as [|k IH]; intros pl pos f1 f2 a b; cbn [cea608_loop].
  - intros H. injection H as <- <-. split; [left; reflexivity|lia].
  - destruct (Nat.ltb_spec (length pl) (pos + 3)) as [Hlt|Hge]; [discriminate|].
    intros H.
    assert (Hgen : exists g1 g2, cea608_loop k pl (pos + 3) g1 g2 = Ok (a, b) /\
                                 (length g1 + length g2 <= length f1 + length f2 + 2)%nat).
    { repeat match type of H with context [if ?c then _ else _] => destruct c end;
        eexists _, _; (split; [exact H|]); rewrite ?app_length; cbn [length]; lia. }
    destruct Hgen as (g1 & g2 & Hg & Hl). destruct (IH _ _ _ _ _ _ Hg) as ([->|Hk] & Hb); split; try lia.
Qed.

Lemma parse_cea608_p_spec pl :
  parse_cea608_p pl = rtick (parse_cea608 pl) (N.land (nthb pl 0) 31).
Proof.
  unfold parse_cea608_p, parse_cea608. destruct pl as [|b t]; [reflexivity|].
  replace (lenZ (b :: t) =? 0)%Z with false by (symmetry; apply Z.eqb_neq; unfold lenZ; cbn [length]; lia).
  rewrite (pidx_ok (b :: t) 0 0) by (unfold lenZ; cbn [length]; lia). cbn [rbind Z.to_nat nth nthb].
  change 2%Z with (Z.of_nat 2). rewrite cea608_loop_p_spec. f_equal. lia.
Qed.

Lemma land31_le x : N.land x 31 <= 31.
Proof. change 31 with (N.ones 5) at 1. rewrite N.land_ones. pose proof (N.mod_lt x (2 ^ 5)). change (2 ^ 5) with 32 in *. lia. Qed.

(* ParseCEA608: every payload; Ok or Err; at most 31 iterations, 3 bytes of input per iteration,
   at most 2 output bytes per iteration *)
Lemma parse_cea608_p_total pl :
  rmap fst (parse_cea608_p pl) = parse_cea608 pl /\
  (parse_cea608_p pl = Err \/
   exists f1 f2 t, parse_cea608_p pl = Ok (f1, f2, t) /\
                   t <= 31 /\ 3 * t <= lenN pl /\ lenN f1 + lenN f2 <= 2 * t).
Proof.
  rewrite parse_cea608_p_spec. split.
  { unfold rtick. destruct (parse_cea608 pl); reflexivity. }
  pose proof (land31_le (nthb pl 0)) as H31.
  destruct (parse_cea608 pl) as [[a b]| | |] eqn:Hp; unfold rtick, rmap.
  (* neither Panic nor OutOfFuel *)
  3,4: exfalso; unfold parse_cea608 in Hp; destruct pl; [discriminate|];
    pose proof (okerr_cea608_loop (N.to_nat (N.land n 31)) (n :: pl) 2 [] []) as Ho; rewrite Hp in Ho; exact Ho.
  - right. exists a, b, (N.land (nthb pl 0) 31). split; [reflexivity|]. split; [exact H31|].
    unfold parse_cea608 in Hp. destruct pl as [|b0 t0]; [discriminate|].
    apply cea608_loop_bounds in Hp. cbn [nthb nth]. cbn [length] in Hp. unfold lenN. cbn [length].
    destruct Hp as ([Hk|Hk] & Hl); lia.
  - left. reflexivity.
Qed.

(* ================================================================== DecodeUserDataRegisteredSEI *)
Definition ltb8 (pl : list N) : (lenZ pl <? 8)%Z = (length pl <? 8)%nat := lenZ_ltb pl 8.

Lemma extract_cea608_p_spec pl :
  (8 <= length pl)%nat ->
  extract_cea608_p pl =
    match parse_cea608_p (skipn 8 pl) with
    | Ok (f1, f2, t) => Ok (mkPass (KCea608 f1 f2) pl, t)
    | Err => Err | Panic => Panic | OutOfFuel => OutOfFuel
    end.
Proof.
  intros H. unfold extract_cea608_p. rewrite ltb8.
  destruct (Nat.ltb_spec (length pl) 8); [lia|].
  rewrite pslice_to_end by (unfold lenZ; lia). cbn [rbind]. change (Z.to_nat 8) with 8%nat.
  destruct (parse_cea608_p (skipn 8 pl)) as [[[f1 f2] t]| | |]; reflexivity.
Qed.

(* ExtractCEA608sei called directly (it repeats the length check) *)
Lemma extract_cea608_p_total pl :
  extract_cea608_p pl = Err \/
  exists m t, extract_cea608_p pl = Ok (m, t) /\ ps_payload m = pl /\ t <= 31 /\ 3 * t <= lenN pl /\
    match ps_kind m with KCea608 f1 f2 => lenN f1 + lenN f2 <= 2 * t | _ => False end.
Proof.
  unfold extract_cea608_p. rewrite ltb8.
  destruct (Nat.ltb_spec (length pl) 8) as [Hlt|Hge]; [left; reflexivity|].
  rewrite pslice_to_end by (unfold lenZ; lia). cbn [rbind]. change (Z.to_nat 8) with 8%nat.
  destruct (parse_cea608_p_total (skipn 8 pl)) as (_ & [->|(f1 & f2 & t & -> & H1 & H2 & H3)]); [left; reflexivity|].
  right. cbn [rbind]. eexists _, _. split; [reflexivity|]. cbn [ps_payload ps_kind].
  assert (lenN (skipn 8 pl) <= lenN pl) by (unfold lenN; rewrite skipn_length; lia).
  repeat split; try lia.
Qed.

Definition is_cea608_hdr (pl : list N) : bool :=
  (nthb pl 0 =? 181) && (be_val (firstn 2 (skipn 1 pl)) 0 =? 49) &&
  (be_val (firstn 4 (skipn 3 pl)) 0 =? 1195456820) && (nthb pl 7 =? 3).

(* behind the length check the header accesses are in range; what follows them is ExtractCEA608sei *)
Lemma decode_registered_p_eq pl : (8 <= length pl)%nat ->
  decode_registered_p pl = if is_cea608_hdr pl then extract_cea608_p pl else Ok (mkPass KRegistered pl, 0).
Proof.
  intros Hge. unfold decode_registered_p, extract_cea608_p. rewrite ltb8.
  destruct (Nat.ltb_spec (length pl) 8) as [Hlt|_]; [lia|].
  rewrite (pidx_ok pl 0 0) by (unfold lenZ; lia). cbn [rbind].
  rewrite pslice_ok by (unfold lenZ; lia). cbn [rbind].
  change (Z.to_nat (3 - 1)) with 2%nat. change (Z.to_nat 1) with 1%nat.
  rewrite be16_p_firstn by (rewrite skipn_length; lia). cbn [rbind].
  rewrite pslice_ok by (unfold lenZ; lia). cbn [rbind].
  change (Z.to_nat (7 - 3)) with 4%nat. change (Z.to_nat 3) with 3%nat.
  rewrite be32_p_firstn by (rewrite skipn_length; lia). cbn [rbind].
  rewrite (pidx_ok pl 7 0) by (unfold lenZ; lia). cbn [rbind].
  reflexivity.
Qed.

Lemma decode_registered_p_spec pl :
  rmap fst (decode_registered_p pl) = decode_registered pl.
Proof.
  unfold decode_registered. destruct (Nat.ltb_spec (length pl) 8) as [Hlt|Hge].
  { unfold decode_registered_p. rewrite ltb8. destruct (Nat.ltb_spec (length pl) 8); [reflexivity|lia]. }
  rewrite (decode_registered_p_eq pl Hge). fold (is_cea608_hdr pl). cbv zeta.
  destruct (is_cea608_hdr pl); [|reflexivity]. rewrite (extract_cea608_p_spec pl Hge).
  destruct (parse_cea608_p_total (skipn 8 pl)) as (<- & _).
  destruct (parse_cea608_p (skipn 8 pl)) as [[[f1 f2] t]| | |]; reflexivity.
Qed.

Lemma okerr_decode_registered pl : okerr (decode_registered pl).
Proof.
  unfold decode_registered. destruct (length pl <? 8)%nat; [exact I|].
  match goal with |- okerr (if ?b then _ else _) => destruct b end; [|exact I].
  destruct (parse_cea608_p_total (skipn 8 pl)) as (Hs & Ht). rewrite <- Hs.
  destruct Ht as [->|(f1 & f2 & t & -> & _)]; exact I.
Qed.

(* DecodeUserDataRegisteredSEI: every payload; the result keeps the payload (no copy), the two CEA-608
   fields hold at most 2 bytes per iteration *)
Lemma decode_registered_p_total pl :
  decode_registered_p pl = Err \/
  exists m t, decode_registered_p pl = Ok (m, t) /\ ps_payload m = pl /\ t <= 31 /\ 3 * t <= lenN pl /\
    match ps_kind m with KCea608 f1 f2 => lenN f1 + lenN f2 <= 2 * t | _ => True end.
Proof.
  destruct (Nat.ltb_spec (length pl) 8) as [Hlt|Hge].
  { left. unfold decode_registered_p. rewrite ltb8. destruct (Nat.ltb_spec (length pl) 8); [reflexivity|lia]. }
  rewrite (decode_registered_p_eq pl Hge). destruct (is_cea608_hdr pl).
  - destruct (extract_cea608_p_total pl) as [E|(m & t & E & Hp & H1 & H2 & Hk)]; [left; exact E|right].
    exists m, t. repeat split; try assumption. destruct (ps_kind m); try exact I. exact Hk.
  - right. eexists _, _. split; [reflexivity|]. cbn [ps_payload ps_kind]. repeat split; lia.
Qed.

(* ================================================================== DecodeUserDataUnregisteredSEI *)
Lemma decode_unregistered_p_spec pl : decode_unregistered_p pl = decode_unregistered pl.
Proof.
  unfold decode_unregistered_p, decode_unregistered.
  rewrite (lenZ_ltb pl 16 : (lenZ pl <? 16)%Z = _).
  destruct (Nat.ltb_spec (length pl) 16) as [Hlt|Hge]; [reflexivity|].
  rewrite pslice_ok by (unfold lenZ; lia). reflexivity.
Qed.

Lemma decode_unregistered_p_total pl :
  decode_unregistered_p pl = Err \/
  exists m, decode_unregistered_p pl = Ok m /\ ps_payload m = pl /\
            (exists s, unregistered_string_accesses m = Ok s) /\
            match ps_kind m with KUnregistered u => lenN u = 16 | _ => False end.
Proof.
  rewrite decode_unregistered_p_spec. unfold decode_unregistered.
  destruct (Nat.ltb_spec (length pl) 16) as [Hlt|Hge]; [left; reflexivity|].
  right. eexists. split; [reflexivity|]. cbn [ps_payload ps_kind]. split; [reflexivity|]. split.
  - unfold unregistered_string_accesses. cbn [ps_payload]. rewrite pslice_to_end by (unfold lenZ; lia). eauto.
  - unfold lenN. rewrite firstn_length. lia.
Qed.

(* ================================================================== SEI 137 / 144 *)
Tactic Notation "destruct_len" ident(p) integer(n) :=
  do n (destruct p as [|? p]; [cbn [length] in *; try lia|]); destruct p; [|cbn [length] in *; lia].

Lemma mdcv_decode_p_spec p : mdcv_decode_p p = mdcv_decode p.
Proof.
  unfold mdcv_decode_p, mdcv_decode, mdcv_size.
  rewrite (lenZ_eqb p 24 : (lenZ p =? 24)%Z = _).
  destruct (N.eqb_spec (lenN p) 24) as [He|Hne]; [|reflexivity]. cbn [negb].
  assert (Hl : length p = 24%nat) by (unfold lenN in He; lia).
  destruct_len p 24.
  reflexivity.
Qed.

Lemma cll_decode_p_spec p : cll_decode_p p = cll_decode p.
Proof.
  unfold cll_decode_p, cll_decode, cll_size.
  rewrite (lenZ_eqb p 4 : (lenZ p =? 4)%Z = _).
  destruct (N.eqb_spec (lenN p) 4) as [He|Hne]; [|reflexivity]. cbn [negb].
  assert (Hl : length p = 4%nat) by (unfold lenN in He; lia).
  destruct_len p 4.
  reflexivity.
Qed.

Lemma okerr_mdcv_decode p : okerr (mdcv_decode p).
Proof.
  unfold mdcv_decode. destruct (negb (lenN p =? mdcv_size)); [exact I|].
  repeat match goal with |- context [rd_be ?k ?l] => destruct (rd_be k l) end. exact I.
Qed.

Lemma okerr_cll_decode p : okerr (cll_decode p).
Proof.
  unfold cll_decode. destruct (negb (lenN p =? cll_size)); [exact I|].
  repeat match goal with |- context [rd_be ?k ?l] => destruct (rd_be k l) end. exact I.
Qed.

Lemma mdcv_decode_p_total p :
  mdcv_decode_p p = mdcv_decode p /\ (mdcv_decode_p p = Err \/ exists m, mdcv_decode_p p = Ok m).
Proof. split; [apply mdcv_decode_p_spec|]. rewrite mdcv_decode_p_spec. apply okerr_inv, okerr_mdcv_decode. Qed.

Lemma cll_decode_p_total p :
  cll_decode_p p = cll_decode p /\ (cll_decode_p p = Err \/ exists m, cll_decode_p p = Ok m).
Proof. split; [apply cll_decode_p_spec|]. rewrite cll_decode_p_spec. apply okerr_inv, okerr_cll_decode. Qed.

(* ================================================================== bit-list reader decoders *)
Lemma okerr_rd n l : okerr (rd n l).
Proof. unfold rd. destruct (length l <? n)%nat; exact I. Qed.

Lemma okerr_rd_flag l : okerr (rd_flag l).
Proof. destruct l; exact I. Qed.

Ltac okerr_step :=
  cbv beta;
  match goal with
  | |- okerr (Ok _) => exact I
  | |- okerr Err => exact I
  | |- okerr (rd _ _) => apply okerr_rd
  | |- okerr (rd_flag _) => apply okerr_rd_flag
  | |- okerr (rbind _ _) => apply okerr_bind; [|intros ?]
  | |- okerr (match ?x with pair _ _ => _ end) => destruct x
  | |- okerr (if ?b then _ else _) => destruct b
  end.

Lemma okerr_rd_signed n l : okerr (rd_signed n l).
Proof. unfold rd_signed. repeat okerr_step. Qed.

Lemma okerr_rd_hms full l : okerr (rd_hms full l).
Proof. unfold rd_hms. repeat okerr_step. Qed.

Lemma okerr_rd_clock l : okerr (rd_clock l).
Proof. unfold rd_clock. repeat (okerr_step || apply okerr_rd_hms). Qed.

Lemma okerr_rd_clock_avc tolen l : okerr (rd_clock_avc tolen l).
Proof. unfold rd_clock_avc. repeat (okerr_step || apply okerr_rd_hms || apply okerr_rd_signed). Qed.

(* k values read one after the other by a reader that is Ok or Err: Err, or exactly k values *)
Lemma rd_n_total {A} (rd1 : list bool -> res (A * list bool)) (rdn : nat -> list bool -> res (list A * list bool)) :
  (forall l, okerr (rd1 l)) -> (forall l, rdn O l = Ok ([], l)) ->
  (forall k l, rdn (S k) l = do (c, l1) <- rd1 l; do (cs, l2) <- rdn k l1; Ok (c :: cs, l2)) ->
  forall k l, rdn k l = Err \/ exists cs l', rdn k l = Ok (cs, l') /\ length cs = k.
Proof.
  intros H1 H0 HS. induction k as [|k IH]; intros l; [rewrite H0; right; eauto|]. rewrite HS.
  destruct (okerr_inv _ (H1 l)) as [->|([c l1] & ->)]; [left; reflexivity|]. cbn [rbind].
  destruct (IH l1) as [->|(cs & l2 & -> & Hl)]; [left; reflexivity|]. cbn [rbind].
  right. eexists _, _. split; [reflexivity|]. cbn [length]. lia.
Qed.

Lemma rd_clocks_total k l :
  rd_clocks k l = Err \/ exists cs l', rd_clocks k l = Ok (cs, l') /\ length cs = k.
Proof. apply (rd_n_total rd_clock rd_clocks okerr_rd_clock); reflexivity. Qed.

Lemma rd_clocks_avc_total tolen k l :
  rd_clocks_avc k tolen l = Err \/ exists cs l', rd_clocks_avc k tolen l = Ok (cs, l') /\ length cs = k.
Proof. apply (rd_n_total (rd_clock_avc tolen) (fun k => rd_clocks_avc k tolen) (okerr_rd_clock_avc tolen)); reflexivity. Qed.

Lemma rd_val_lt n l v l' : rd n l = Ok (v, l') -> v < 2 ^ N.of_nat n.
Proof.
  unfold rd. destruct (length l <? n)%nat; [discriminate|]. intros H. injection H as <- <-.
  eapply N.lt_le_trans; [apply val_of_lt|]. apply N.pow_le_mono_r; [lia|]. rewrite firstn_length. lia.
Qed.

(* ---------- index accesses of `range`-style loops ---------- *)
Lemma range_idx_total {A} (l : list A) : forall n i,
  (0 <= i)%Z -> (i + Z.of_nat n <= lenZ l)%Z -> exists r, range_idx l n i = Ok r /\ length r = n.
Proof.
  induction n as [|n IH]; intros i H0 H1; cbn [range_idx]; [eauto|].
  destruct (pidx_ok_ex l i) as (x & ->); [lia|]. cbn [rbind].
  destruct (IH (i + 1)%Z) as (r & -> & Hl); [lia|lia|]. cbn [rbind]. eexists. split; [reflexivity|]. cbn [length]. lia.
Qed.

(* TimeCodeSEI.String (repaired text): in range for EVERY clock list, in particular the empty one *)
Lemma tc_string_total cs : exists r, tc_string_accesses cs = Ok r /\ length r = length cs.
Proof. unfold tc_string_accesses. apply range_idx_total; unfold lenZ; lia. Qed.

(* DecodeTimeCodeSEI: every payload *)
Lemma tc_decode_total payload :
  tc_decode payload = Err \/
  exists cs, tc_decode payload = Ok cs /\ lenN cs <= 3 /\
             exists r, tc_string_accesses cs = Ok r /\ length r = length cs.
Proof.
  unfold tc_decode.
  destruct (okerr_inv _ (okerr_rd 2 (bytes_to_bits payload))) as [->|([k l1] & Hk)]; [left; reflexivity|].
  rewrite Hk. cbn [rbind]. apply rd_val_lt in Hk. change (2 ^ N.of_nat 2) with 4 in Hk.
  destruct (rd_clocks_total (N.to_nat k) l1) as [->|(cs & l2 & -> & Hl)]; [left; reflexivity|].
  right. cbn [rbind]. exists cs. split; [reflexivity|]. split; [unfold lenN; lia|]. apply tc_string_total.
Qed.

(* the pinned String indexes Clocks[0] of the value decoded from a payload with num_clock_ts = 0 *)
Lemma tc_string_pinned_refuted :
  exists payload cs, tc_decode payload = Ok cs /\ tc_string_accesses_pinned cs = Panic.
Proof. exists [0], []. split; vm_compute; reflexivity. Qed.

(* DecodePicTimingAvcSEIHRD: every payload, every external parameter (nil or any length fields, any
   time offset length); 1..3 clocks; PicTimingAvcSEI.String's Clocks[0], Clocks[1..] are in range *)
Lemma num_clock_ts_range pict k : num_clock_ts pict = Some k -> (1 <= k <= 3)%nat.
Proof.
  unfold num_clock_ts. repeat match goal with |- context [if ?b then _ else _] => destruct b end;
    intros H; try discriminate; injection H as <-; lia.
Qed.

Lemma pt_string_total m : (1 <= length (p_clocks m))%nat ->
  exists r, pt_string_accesses m = Ok r /\ length r = length (p_clocks m).
Proof.
  intros H. unfold pt_string_accesses.
  destruct (pidx_ok_ex (p_clocks m) 0) as (x & ->); [unfold lenZ; lia|]. cbn [rbind].
  destruct (range_idx_total (p_clocks m) (length (p_clocks m) - 1) 1) as (r & -> & Hl); [lia|unfold lenZ; lia|].
  cbn [rbind]. eexists. split; [reflexivity|]. cbn [length]. lia.
Qed.

Lemma pt_decode_total ext tolen payload :
  pt_decode ext tolen payload = Err \/
  exists m, pt_decode ext tolen payload = Ok m /\ 1 <= lenN (p_clocks m) <= 3 /\
            exists r, pt_string_accesses m = Ok r /\ length r = length (p_clocks m).
Proof.
  unfold pt_decode.
  set (hrdpart := match ext with Some h => _ | None => _ end).
  assert (Hh : okerr hrdpart).
  { unfold hrdpart. destruct ext as [h|]; repeat okerr_step. }
  destruct (okerr_inv _ Hh) as [->|([hrd l1] & ->)]; [left; reflexivity|]. cbn [rbind].
  destruct (okerr_inv _ (okerr_rd 4 l1)) as [->|([pict l2] & ->)]; [left; reflexivity|]. cbn [rbind].
  destruct (num_clock_ts pict) as [k|] eqn:Hk; [|left; reflexivity].
  apply num_clock_ts_range in Hk.
  destruct (rd_clocks_avc_total tolen k l2) as [->|(cs & l3 & -> & Hl)]; [left; reflexivity|].
  right. cbn [rbind]. eexists. split; [reflexivity|]. cbn [p_clocks]. split; [unfold lenN; lia|].
  apply pt_string_total. cbn [p_clocks]. lia.
Qed.
