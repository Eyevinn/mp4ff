(* C16SeiProofs.v — the guarded count-driven loop (du_loop) and sei.DecodePicTimingHevcSEI are total
   for every payload, every parameter set and EVERY count (also 2^32-1): at most bits+1 iterations,
   at most that many appends. No axioms. *)
From V.lib Require Import Base.
From V.c13 Require Import C13Model.
From V.c16 Require Import C16Model C16WalkProofs C16ReaderProofs.

(* reader state reachable in a parser: sticky error, or well-formed *)
Definition rok (s : rstate) : Prop := rerr s = true \/ rwf s.

Lemma rok_init data : rok (rinit data).
Proof. right. apply rwf_init. Qed.

Lemma read_rok s n : rok s ->
  rok (snd (read s n)) /\ rdata (snd (read s n)) = rdata s /\
  (rerr (snd (read s n)) = false -> rerr s = false /\ bits_left (snd (read s n)) + n <= bits_left s).
Proof.
  intros H. destruct (rerr s) eqn:He.
  - unfold read. rewrite (read_gen_after_error true s n He). cbn [snd]. split; [exact H|]. split; [reflexivity|]. intros; congruence.
  - destruct H as [H|H]; [congruence|].
    pose proof (read_gen_inv true s n H He) as Hi. unfold read.
    destruct (read_gen true s n) as [v s1]. cbn [snd]. destruct Hi as (Hd & Hr).
    split; [|split; [exact Hd|]].
    + destruct Hr as [Hr|(_ & Hr & _)]; [left; exact Hr|right; exact Hr].
    + intros Hf. destruct Hr as [Hr|(_ & _ & Hr)]; [congruence|]. split; [reflexivity|exact Hr].
Qed.

Lemma read_flag_rok s : rok s -> rok (snd (read_flag s)) /\ rdata (snd (read_flag s)) = rdata s.
Proof.
  intros H. unfold read_flag. pose proof (read_rok s 1 H) as (H1 & H2 & _).
  destruct (read s 1) as [v s1]. cbn [snd] in *. auto.
Qed.

Lemma read_ue_rok s : rok s ->
  rok (snd (read_ue s)) /\ rdata (snd (read_ue s)) = rdata s /\
  (rerr (snd (read_ue s)) = false -> rerr s = false /\ bits_left (snd (read_ue s)) < bits_left s).
Proof.
  intros H. destruct (rerr s) eqn:He.
  - rewrite (read_ue_after_error s He). cbn [snd]. split; [exact H|]. split; [reflexivity|]. intros; congruence.
  - destruct H as [H|H]; [congruence|].
    destruct (read_ue_total s H He) as (lz & s1 & _ & _ & Hi).
    destruct (read_ue s) as [v s2]. cbn [snd]. destruct Hi as (Hd & Hr).
    split; [|split; [exact Hd|]].
    + destruct Hr as [Hr|(_ & Hr & _)]; [left; exact Hr|right; exact Hr].
    + intros Hf. destruct Hr as [Hr|(_ & _ & Hr)]; [congruence|]. split; [reflexivity|exact Hr].
Qed.

(* ---------- the guarded loop ---------- *)
Lemma du_loop_total : forall fuel count i common w s nal inc t,
    rok s -> (rerr s = false -> bits_left s + 1 < N.of_nat fuel) -> (0 < fuel)%nat ->
    exists nal' inc' s' t',
      du_loop fuel count i common w s nal inc t = Ok (nal', inc', s', t') /\
      rdata s' = rdata s /\ t <= t' /\
      (rerr s = false -> t' - t <= bits_left s + 1) /\ (rerr s = true -> t' - t <= 1) /\
      lenN nal' <= lenN nal + (t' - t) /\ lenN inc' <= lenN inc + (t' - t).
Proof.
  induction fuel as [|f IH]; intros count i common w s nal inc t Hs Hf Hpos; [lia|].
  cbn [du_loop]. destruct (i <=? count) eqn:Hc.
  2:{ exists nal, inc, s, t. split; [reflexivity|]. replace (t - t) with 0 by lia. repeat split; lia. }
  pose proof (read_ue_rok s Hs) as (Hu1 & Hu2 & Hu3).
  destruct (read_ue s) as [v s1]. cbn [snd] in *.
  set (cond := negb common && (i <? count)).
  assert (Hstep : exists inc1 s2, (if cond then let '(x, s2) := read s1 w in (u32 x :: inc, s2) else (inc, s1)) = (inc1, s2)
            /\ rok s2 /\ rdata s2 = rdata s /\ lenN inc1 <= lenN inc + 1 /\
            (rerr s2 = false -> rerr s = false /\ bits_left s2 < bits_left s)).
  { destruct cond.
    - pose proof (read_rok s1 w Hu1) as (Hr1 & Hr2 & Hr3).
      destruct (read s1 w) as [x s2]. cbn [snd] in *. exists (u32 x :: inc), s2.
      split; [reflexivity|]. split; [exact Hr1|]. split; [congruence|]. split; [rewrite lenN_cons; lia|].
      intros Hf2. destruct (Hr3 Hf2) as (Ha & Hb). destruct (Hu3 Ha) as (Hc1 & Hc2). split; [exact Hc1|lia].
    - exists inc, s1. split; [reflexivity|]. split; [exact Hu1|]. split; [exact Hu2|]. split; [lia|]. exact Hu3. }
  destruct Hstep as (inc1 & s2 & -> & Hok2 & Hd2 & Hl2 & Hb2).
  destruct (rerr s2) eqn:He2.
  - exists (u32 v :: nal), inc1, s2, (t + 1). split; [reflexivity|]. split; [exact Hd2|].
    replace (t + 1 - t) with 1 by lia. rewrite lenN_cons. repeat split; try lia.
  - destruct (Hb2 eq_refl) as (Hes & Hlt).
    destruct (IH count (i + 1) common w s2 (u32 v :: nal) inc1 (t + 1) Hok2) as
        (nal' & inc' & s' & t' & Hl & Hd & Ht & Hb & _ & Hn & Hi).
    { intros _. specialize (Hf Hes). lia. }
    { specialize (Hf Hes). lia. }
    exists nal', inc', s', t'. split; [exact Hl|]. split; [congruence|]. split; [lia|].
    specialize (Hb He2). rewrite lenN_cons in Hn.
    split; [intros _; lia|]. split; [intros Hx; congruence|]. split; lia.
Qed.

Lemma du_fuel_enough data s : rdata s = data -> rok s -> rerr s = false ->
  bits_left s + 1 < N.of_nat (du_fuel data).
Proof.
  intros Hd [H|[Hp Hn]] He; [congruence|]. unfold bits_left, du_fuel, lenN in *. rewrite Hd in *. lia.
Qed.

(* ---------- the whole decoder ---------- *)
(* a state the decoder can be in: reachable, over the payload *)
Definition on (payload : list N) (s : rstate) : Prop := rok s /\ rdata s = payload.

Lemma on_read p s n : on p s -> on p (snd (read s n)).
Proof. intros [H <-]. destruct (read_rok s n H) as (A1 & A2 & _). split; assumption. Qed.
Lemma on_flag p s : on p s -> on p (snd (read_flag s)).
Proof. intros [H <-]. destruct (read_flag_rok s H) as (A1 & A2). split; assumption. Qed.
Lemma on_ue p s : on p s -> on p (snd (read_ue s)).
Proof. intros [H <-]. destruct (read_ue_rok s H) as (A1 & A2 & _). split; assumption. Qed.

(* the next read of the program text: its result state is again `on` the payload *)
Ltac on_step :=
  match goal with
  | H : on ?p ?s |- context [read ?s ?n] =>
      let H' := fresh "H" in pose proof (on_read p s n H) as H'; destruct (read s n) as [? ?]; cbn [snd] in H'; clear H
  | H : on ?p ?s |- context [read_flag ?s] =>
      let H' := fresh "H" in pose proof (on_flag p s H) as H'; destruct (read_flag s) as [? ?]; cbn [snd] in H'; clear H
  | H : on ?p ?s |- context [read_ue ?s] =>
      let H' := fresh "H" in pose proof (on_ue p s H) as H'; destruct (read_ue s) as [? ?]; cbn [snd] in H'; clear H
  end.

Lemma decode_pic_timing_hevc_total p payload :
  exists fields nal inc e t,
    decode_pic_timing_hevc p payload = Ok (fields, nal, inc, e, t) /\
    t <= 8 * lenN payload + 8 /\ lenN nal <= t /\ lenN inc <= t.
Proof.
  unfold decode_pic_timing_hevc.
  assert (H0 : on payload (rinit payload)) by (split; [apply rok_init|reflexivity]).
  assert (Hz : forall (f : list N) (e : bool), exists fields nal inc e' t,
             Ok (f, @nil N, @nil N, e, 0) = Ok (fields, nal, inc, e', t) /\
             t <= 8 * lenN payload + 8 /\ lenN nal <= t /\ lenN inc <= t).
  { intros f e. eexists _, _, _, _, _. split; [reflexivity|]. unfold lenN. cbn [length]. lia. }
  (* the optional frame-field info: both branches end in a state on the payload *)
  match goal with |- context [if hp_ffi p then ?a else ?b] =>
    assert (exists ps sst dup s0, (if hp_ffi p then a else b) = (ps, sst, dup, s0) /\ on payload s0)
      as (ps & sst & dup & s0 & -> & H1) end.
  { destruct (hp_ffi p); [do 3 on_step|]; eexists _, _, _, _; (split; [reflexivity|assumption]). }
  destruct (hp_cpb p); [|apply Hz]. do 2 on_step.
  destruct (hp_subpic p); [|apply Hz]. on_step.
  destruct (hp_subpic_in_pt p); [|apply Hz]. do 2 on_step.
  match goal with |- context [if ?c then read ?s ?w else ?b] =>
    assert (exists cinc s6, (if c then read s w else b) = (cinc, s6) /\ on payload s6) as (cinc & s6 & -> & [F1 Hd6]) end.
  { match goal with |- context [if ?c then _ else _] => destruct c end; [on_step|]; eexists _, _; (split; [reflexivity|assumption]). }
  match goal with |- context [du_loop _ ?n 0 ?c ?w s6] =>
    destruct (du_loop_total (du_fuel payload) n 0 c w s6 [] [] 0 F1)
      as (nal & inc & s' & t & -> & Hd & _ & Hb1 & Hb2 & Hn & Hi) end.
  { intros He. apply du_fuel_enough; assumption. }
  { unfold du_fuel. lia. }
  cbn [rbind]. eexists _, _, _, _, _. split; [reflexivity|].
  rewrite !lenN_rev. change (@lenN N []) with 0 in *. replace (t - 0) with t in * by lia.
  assert (Ht : t <= 8 * lenN payload + 8).
  { destruct (rerr s6) eqn:He.
    - specialize (Hb2 eq_refl). lia.
    - specialize (Hb1 eq_refl). destruct F1 as [F1|[Hp Hn6]]; [congruence|].
      unfold bits_left in Hb1. rewrite Hd6 in *. lia. }
  split; [exact Ht|]. split; lia.
Qed.

(* the unguarded shape of the pinned text: the same loop without `if AccError != nil { break }`.
   With an empty payload and a count of 2^20 it needs more than any fuel linear in the input. *)
Fixpoint du_loop_unguarded (fuel : nat) (count i : N) (s : rstate) (nal : list N) : res (list N) :=
  match fuel with
  | O => OutOfFuel
  | S f => if i <=? count then let '(v, s1) := read_ue s in du_loop_unguarded f count (i + 1) s1 (u32 v :: nal)
           else Ok nal
  end.

Lemma du_loop_unguarded_refuted :
  exists payload count, du_loop_unguarded (du_fuel payload * 100) count 0 (rinit payload) [] = OutOfFuel.
Proof. exists [], 1048576. vm_compute. reflexivity. Qed.
