(* C16ResProofs.v — "returns a value, or Go's error where that is allowed: never Panic, never OutOfFuel"
   as a postcondition on `res`, with the rule for `do`.  The walker, byte-stream and FixedSliceWriter files
   state their lemmas with it; the theorem files unfold it into the `exists` shape. *)
From V.lib Require Import Base.

Definition val {A} (e : bool) (Q : A -> Prop) (r : res A) : Prop :=
  match r with Ok a => Q a | Err => e = true | Panic | OutOfFuel => False end.

Lemma val_bind {A B e} {Q : A -> Prop} {Q' : B -> Prop} {r : res A} {k : A -> res B} :
  val e Q r -> (forall a, Q a -> val e Q' (k a)) -> val e Q' (rbind r k).
Proof. destruct r; cbn; auto; contradiction. Qed.

Lemma val_weaken {A e} {Q Q' : A -> Prop} {r : res A} : val e Q r -> (forall a, Q a -> Q' a) -> val e Q' r.
Proof. destruct r; cbn; auto. Qed.

Lemma val_ok {A} {Q : A -> Prop} {r : res A} : val false Q r -> exists a, r = Ok a /\ Q a.
Proof. destruct r; cbn; intros H; try contradiction; [eauto|discriminate]. Qed.

Lemma val_ok2 {A B} {Q : A * B -> Prop} {r : res (A * B)} :
  val false Q r -> exists a b, r = Ok (a, b) /\ Q (a, b).
Proof. intros H. destruct (val_ok H) as ([a b] & E & Hq). eauto. Qed.

Lemma val_err2 {A B e} {Q : A * B -> Prop} {r : res (A * B)} :
  val e Q r -> r = Err \/ exists a b, r = Ok (a, b) /\ Q (a, b).
Proof. destruct r as [[a b]| | |]; cbn; intros H; try contradiction; eauto. Qed.
