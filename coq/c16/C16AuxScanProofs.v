(* C16AuxScanProofs.v — the Annex B scanners (C14 models, imported read-only; they already use partial
   `getb` / `slice` / `copy_into` and fuel) are total on hostile input, lifted from the C14 lemmas:
     - getStartCodePositions (word-at-a-time scanner): for every BYTE list (elements < 256: the word trick
       is about bytes) it returns the naive scan (C14 scanner_eq_naive), so never Panic / OutOfFuel; at
       most one start code per position;
     - ConvertByteStreamToNaluSample: for every byte list, whatever the mix / adjacency of start codes
       (not only the well-formed streams of C14): Ok, output at most 5x the input.
   Iterations: every loop of these models runs on fuel S |input| (inner_loop: 8) and consumes one unit of
   fuel per iteration, so "never OutOfFuel" is "at most |input| + 1 iterations of each loop".
   No axioms. *)
From V.lib Require Import Base.
From V.c14 Require Import C14Spec C14Model C14WordProofs C14ScanProofs C14ConvProofs C14StreamProofs.
Local Open Scope Z_scope.

(* ------------------------------------------------------------------ partial primitives in range *)
Lemma slice_ok (l : list N) a b : 0 <= a -> a <= b -> b <= Zlen l ->
  slice l a b = Ok (firstn (Z.to_nat (b - a)) (skipn (Z.to_nat a) l)).
Proof.
  intros H1 H2 H3. unfold slice. replace ((0 <=? a) && (a <=? b) && (b <=? Zlen l)) with true; [reflexivity|].
  symmetry. rewrite !andb_true_iff. repeat split; lia.
Qed.

Lemma Zlen_slice (l : list N) a b : 0 <= a -> a <= b -> b <= Zlen l ->
  Zlen (firstn (Z.to_nat (b - a)) (skipn (Z.to_nat a) l)) = b - a.
Proof. intros. unfold Zlen in *. rewrite firstn_length, skipn_length. lia. Qed.

Lemma copy_into_4 (l : list N) a b (src : list N) : 0 <= a -> b = a + 4 -> b <= Zlen l -> Zlen src = 4 ->
  exists l', copy_into l a b src = Ok l' /\ Zlen l' = Zlen l.
Proof.
  intros H1 H2 H3 H4. unfold copy_into.
  replace ((0 <=? a) && (a <=? b) && (b <=? Zlen l)) with true by (symmetry; rewrite !andb_true_iff; repeat split; lia).
  eexists. split; [reflexivity|]. unfold Zlen in *.
  rewrite !app_length, !firstn_length, skipn_length. lia.
Qed.

(* ------------------------------------------------------------------ start codes do not overlap *)
Lemma is_sc_inv d p : is_sc d p = true ->
  0 <= p /\ p + 3 < Zlen d /\ is0 (zget d p) = true /\ is0 (zget d (p + 1)) = true /\ is1 (zget d (p + 2)) = true.
Proof.
  unfold is_sc. rewrite !andb_true_iff. intros ((((A & B) & C) & D) & E). repeat split; try assumption; lia.
Qed.

Lemma sc_sep d p q : is_sc d p = true -> p < q < p + 3 -> is_sc d q = false.
Proof.
  intros H Hq. apply is_sc_inv in H. destruct H as (_ & _ & _ & H1 & H2). apply is1_not0 in H2.
  destruct (is_sc d q) eqn:Hs; [|reflexivity]. apply is_sc_inv in Hs. destruct Hs as (_ & _ & S0 & S1 & _).
  assert (Hc : q = p + 1 \/ q = p + 2) by lia. destruct Hc as [-> | ->].
  - replace (p + 1 + 1) with (p + 2) in S1 by lia. congruence.
  - congruence.
Qed.

Lemma sc_len_cases d q : sc_len d q = 3 \/ sc_len d q = 4.
Proof. unfold sc_len. destruct ((1 <=? q) && is0 (zget d (q - 1))); auto. Qed.

Lemma sc_next d p q : is_sc d p = true -> is_sc d q = true -> p < q -> p + 3 <= q + 3 - sc_len d q.
Proof.
  intros Hp Hq Hlt.
  assert (H3 : p + 3 <= q).
  { destruct (Z.lt_ge_cases q (p + 3)) as [Hc|Hc]; [|exact Hc].
    rewrite (sc_sep d p q Hp) in Hq by lia. discriminate. }
  unfold sc_len. destruct ((1 <=? q) && is0 (zget d (q - 1))) eqn:Hc; [|lia].
  apply andb_true_iff in Hc. destruct Hc as (_ & Hz).
  destruct (Z.eq_dec q (p + 3)) as [->|Hne]; [|lia].
  apply is_sc_inv in Hp. destruct Hp as (_ & _ & _ & _ & H1). apply is1_not0 in H1.
  replace (p + 3 - 1) with (p + 2) in Hz by lia. congruence.
Qed.

(* ------------------------------------------------------------------ the start-code list of the naive scan *)
(* a start code (k, pos) occupies [pos - k, pos), k is 3 or 4, it begins at or after `lo` (the end of
   the previous one) and at least one byte follows it *)
Fixpoint scl_ok (L lo : Z) (xs : list (Z * Z)) : Prop :=
  match xs with
  | [] => True
  | e :: t => (fst e = 3 \/ fst e = 4) /\ lo <= snd e - fst e /\ snd e < L /\ scl_ok L (snd e) t
  end.

Lemma scan_scl d : forall n s lo,
  (forall q, s <= q -> is_sc d q = true -> lo <= q + 3 - sc_len d q) ->
  scl_ok (Zlen d) lo (flat_map (scs d) (zrange s n)).
Proof.
  induction n as [|n IH]; intros s lo H; cbn [zrange flat_map]; [exact I|].
  unfold scs at 1. destruct (is_sc d s) eqn:Hs; cbn [app].
  - cbn [scl_ok fst snd]. split; [apply sc_len_cases|]. split; [apply H; [lia|exact Hs]|].
    split; [apply is_sc_inv in Hs; lia|].
    apply IH. intros q Hq Hsq. apply (sc_next d s q Hs Hsq). lia.
  - apply IH. intros q Hq Hsq. apply H; [lia|exact Hsq].
Qed.

Lemma naive_scan_scl d : scl_ok (Zlen d) 0 (naive_scan d).
Proof.
  unfold naive_scan. apply scan_scl. intros q Hq Hs. unfold sc_len.
  destruct (Z.leb_spec 1 q); cbn [andb]; [destruct (is0 (zget d (q - 1)))|]; lia.
Qed.

Lemma scan_length d : forall n s, (length (flat_map (scs d) (zrange s n)) <= n)%nat.
Proof.
  induction n as [|n IH]; intros s; cbn [zrange flat_map length]; [lia|].
  rewrite app_length. specialize (IH (s + 1)). unfold scs at 1. destruct (is_sc d s); cbn [length]; lia.
Qed.

Lemma scl_fst L : forall xs lo, scl_ok L lo xs -> forall e, In e xs -> fst e = 3 \/ fst e = 4.
Proof.
  induction xs as [|x t IH]; intros lo H e He; [contradiction|]. destruct H as (H1 & _ & _ & H4).
  destruct He as [<-|He]; [exact H1|]. exact (IH _ H4 e He).
Qed.

(* the minimum of lengths that are 3 or 4, started at 3 or 4: it is 3 or 4, and 4 only if all are *)
Lemma min_fold_34 : forall (xs : list (Z * Z)) m,
  (forall e, In e xs -> fst e = 3 \/ fst e = 4) -> m = 3 \/ m = 4 ->
  let r := fold_left (fun m e => Z.min m (fst e)) xs m in
  (r = 3 \/ r = 4) /\ (r = 4 -> forall e, In e xs -> fst e = 4).
Proof.
  induction xs as [|x t IH]; intros m H Hm; cbn [fold_left]; [split; [exact Hm|contradiction]|].
  destruct (IH (Z.min m (fst x))) as (A & B).
  { intros e He. apply H. right. exact He. }
  { destruct (H x (or_introl eq_refl)); lia. }
  split; [exact A|]. intros Hr e [<-|He]; [|exact (B Hr e He)].
  pose proof (min_fold_le t (Z.min m (fst x))). destruct (H x (or_introl eq_refl)); lia.
Qed.

(* ------------------------------------------------------------------ getStartCodePositions *)
Lemma get_start_code_positions_total l : bytes_ok l = true ->
  exists scl m, get_start_code_positions l = Ok (scl, m) /\ (lenN scl <= lenN l)%N /\ (m = 3 \/ m = 4).
Proof.
  intros Hok. rewrite (scanner_eq_naive l Hok). eexists _, _. split; [reflexivity|].
  split; [unfold lenN, naive_scan; pose proof (scan_length l (length l) 0); lia|].
  apply (min_fold_34 _ 4 (scl_fst _ _ _ (naive_scan_scl l))). right. reflexivity.
Qed.

(* ------------------------------------------------------------------ ConvertByteStreamToNaluSample *)
Lemma inplace_total L : forall xs l lo, Zlen l = L -> 0 <= lo -> scl_ok L lo xs ->
  (forall e, In e xs -> fst e = 4) -> exists out, inplace_loop l L xs = Ok out /\ Zlen out = L.
Proof.
  induction xs as [|[k pos] rest IH]; intros l lo Hl Hlo Hs H4; cbn [inplace_loop]; [eauto|].
  destruct Hs as (_ & H2 & H3 & Hrest). cbn [fst snd] in *.
  assert (Hk : k = 4) by (apply (H4 (k, pos)); left; reflexivity). subst k.
  match goal with |- context [copy_into l (pos - 4) pos ?src] =>
    destruct (copy_into_4 l (pos - 4) pos src) as (l' & -> & Hl'); [lia|lia|lia|apply Zlen_be32|] end.
  cbn [rbind]. apply (IH l' pos); [lia|lia|exact Hrest|]. intros e He. apply H4. right. exact He.
Qed.

Lemma copy_total l : forall xs lo, 0 <= lo -> scl_ok (Zlen l) lo xs ->
  exists out, copy_loop l (Zlen l) xs = Ok out /\
    Zlen out <= match xs with [] => 0 | s :: _ => Zlen l - snd s + 4 * Zlen xs end.
Proof.
  induction xs as [|[k pos] rest IH]; intros lo Hlo Hs; cbn [copy_loop]; [exists []; split; [reflexivity|unfold Zlen; cbn; lia]|].
  destruct Hs as (H1 & H2 & H3 & Hrest). cbn [fst snd] in *.
  destruct (IH pos ltac:(lia) Hrest) as (r & Hr & Hrl).
  set (nl := match rest with nx :: _ => snd nx - pos - fst nx | [] => Zlen l - pos end).
  assert (Hnl : 0 <= nl /\ pos + nl <= Zlen l /\
                Zlen r + nl <= Zlen l - pos + 4 * Zlen rest).
  { unfold nl. destruct rest as [|[k' pos'] rest'].
    - cbv beta iota in Hrl. change (Zlen (@nil (Z * Z))) with 0. lia.
    - cbv beta iota in Hrl. destruct Hrest as (R1 & R2 & R3 & _). cbn [fst snd] in *. rewrite Zlen_cons in *. lia. }
  destruct Hnl as (N1 & N2 & N3).
  rewrite slice_ok by lia. cbn [rbind]. rewrite Hr. cbn [rbind]. eexists. split; [reflexivity|].
  rewrite !Zlen_app. unfold put_be32. rewrite Zlen_be32.
  rewrite Zlen_slice by lia. rewrite Zlen_cons. lia.
Qed.

Lemma to_nalu_sample_total l : bytes_ok l = true ->
  exists out, to_nalu_sample l = Ok out /\ (lenN out <= 5 * lenN l)%N.
Proof.
  intros Hok. unfold to_nalu_sample. rewrite (scanner_eq_naive l Hok). cbn [rbind fst snd].
  pose proof (naive_scan_scl l) as Hs.
  assert (Hlen : Zlen (naive_scan l) <= Zlen l).
  { unfold Zlen, naive_scan. pose proof (scan_length l (length l) 0). lia. }
  destruct (Z.eqb_spec (min_sc_len (naive_scan l)) 4) as [Hm|Hm].
  - destruct (inplace_total (Zlen l) (naive_scan l) l 0 eq_refl ltac:(lia) Hs) as (out & -> & Ho).
    { exact (proj2 (min_fold_34 _ 4 (scl_fst _ _ _ Hs) (or_intror eq_refl)) Hm). }
    exists out. split; [reflexivity|]. unfold Zlen, lenN in *. lia.
  - destruct (copy_total l (naive_scan l) 0 ltac:(lia) Hs) as (out & -> & Ho).
    exists out. split; [reflexivity|].
    destruct (naive_scan l) as [|[k pos] t]; [unfold Zlen, lenN in *; cbn [length] in *; lia|].
    destruct Hs as (K1 & K2 & _). cbn [fst snd] in *. unfold Zlen, lenN in *. lia.
Qed.
