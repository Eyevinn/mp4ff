(* C16SeiFswTieProofs.v — the partial model of bits.FixedSliceWriter (C16SeiFswModel.v) returns exactly the bytes of
   C17's total model C17TypedModel.fsw_bytes (C13 plain bit writer on an unbounded output, cut at the capacity),
   for every capacity and every sequence of writes whose values fit Go's uint (64 bit). *)
From V.lib Require Import Base.
From V.c13 Require Import C13Model.
From V.c17 Require Import C17TypedModel.
From V.c16 Require Import C16AuxModel C16SeiFswModel C16SeiFswProofs.

(* buffer part of the simulation relation: `out` is the C13 writer's output in reverse order *)
Definition repb (cap : nat) (s : fsw) (out : list N) : Prop :=
  length (f_buf s) = cap /\
  if f_err s then f_off s = Z.of_nat cap /\ f_buf s = firstn cap (rev out)
  else (0 <= f_off s <= Z.of_nat cap)%Z /\ firstn (Z.to_nat (f_off s)) (f_buf s) = rev out.

Lemma firstn_snoc_full {A} (l : list A) (b : A) n : (n <= length l)%nat -> firstn n (l ++ [b]) = firstn n l.
Proof.
  intros H. rewrite firstn_app. replace (n - length l)%nat with O by lia. cbn [firstn]. apply app_nil_r.
Qed.

Lemma firstn_full_len {A} (l m : list A) n : l = firstn n m -> length l = n -> (n <= length m)%nat.
Proof. intros -> H. rewrite firstn_length in H. lia. Qed.

Lemma u8_repb cap s b out s' : repb cap s out -> fsw_u8 s b = Ok s' ->
  repb cap s' (b :: out) /\ f_n s' = f_n s /\ f_v s' = f_v s.
Proof.
  intros (L & R) E. unfold fsw_u8 in E. unfold lenZ in E. rewrite L in E.
  destruct (f_err s) eqn:Er.
  - destruct R as (Ro & Rb).
    replace (f_off s + 1 >? Z.of_nat cap)%Z with true in E by (symmetry; apply Z.gtb_lt; lia).
    inversion E; subst s'; clear E. cbn [f_n f_v]. split; [|split; reflexivity].
    unfold repb. cbn [f_buf f_off f_err]. split; [exact L|]. split; [exact Ro|].
    cbn [rev]. rewrite firstn_snoc_full; [exact Rb|].
    apply (firstn_full_len (f_buf s)); assumption.
  - destruct R as (Ro & Rb).
    destruct (f_off s + 1 >? Z.of_nat cap)%Z eqn:G.
    + apply Z.gtb_lt in G. inversion E; subst s'; clear E. cbn [f_n f_v]. split; [|split; reflexivity].
      unfold repb. cbn [f_buf f_off f_err]. split; [exact L|].
      assert (f_off s = Z.of_nat cap) by lia. split; [assumption|].
      rewrite H, Nat2Z.id in Rb. rewrite <- L in Rb at 1. rewrite firstn_all in Rb.
      cbn [rev]. rewrite <- Rb. rewrite firstn_snoc_full by lia. rewrite <- L. symmetry; apply firstn_all.
    + rewrite Z.gtb_ltb in G. apply Z.ltb_ge in G.
      unfold pupd in E. unfold lenZ in E. rewrite L in E.
      replace ((0 <=? f_off s) && (f_off s <? Z.of_nat cap))%Z with true in E
        by (symmetry; apply andb_true_intro; split; [apply Z.leb_le|apply Z.ltb_lt]; lia).
      cbn [rbind] in E. inversion E; subst s'; clear E. cbn [f_n f_v]. split; [|split; reflexivity].
      unfold repb. cbn [f_buf f_off f_err].
      set (k := Z.to_nat (f_off s)) in *.
      change (match f_buf s with [] => [] | _ :: l => skipn k l end) with (skipn (S k) (f_buf s)).
      assert (Hk : (k < cap)%nat) by lia.
      assert (Lf : length (firstn k (f_buf s)) = k) by (rewrite firstn_length; lia).
      split.
      * rewrite app_length. cbn [length]. rewrite Lf, skipn_length. lia.
      * split; [lia|].
        replace (Z.to_nat (f_off s + 1)) with (S k) by lia.
        rewrite firstn_app, Lf. replace (S k - k)%nat with 1%nat by lia.
        rewrite (firstn_all2 (n := S k)) by lia. cbn [firstn rev]. rewrite Rb. reflexivity.
Qed.

Lemma drain_sim cap : forall fuel s T nr0 out s', repb cap s out -> f_n s = Z.of_N T ->
  fsw_drain fuel s = Ok s' ->
  let '(T', z, o) := drain false fuel (f_v s) T nr0 out in
  repb cap s' o /\ f_n s' = Z.of_N T' /\ f_v s' = f_v s.
Proof.
  induction fuel as [|f IH]; intros s T nr0 out s' R Hn E; [discriminate E|].
  cbn [fsw_drain drain] in *.
  replace (8 <=? f_n s)%Z with (8 <=? T) in E by (rewrite Hn; apply eq_true_iff_eq; rewrite N.leb_le, Z.leb_le; lia).
  destruct (8 <=? T) eqn:G.
  - apply N.leb_le in G.
    replace (Z.to_N (f_n s - 8)) with (T - 8) in E by lia.
    set (b := N.land (N.shiftr (f_v s) (T - 8)) 255) in *.
    destruct (fsw_u8 s b) as [s1| | |] eqn:E1; cbn [rbind] in E; try discriminate E.
    destruct (u8_repb cap s b out s1 R E1) as (R1 & N1 & V1).
    cbn [emit_byte andb].
    specialize (IH (mkFsw (f_buf s1) (f_off s1) (f_n s1 - 8)%Z (f_v s1) (f_err s1)) (T - 8)
                   (if b =? 0 then nr0 + 1 else 0) (b :: out) s').
    cbn [f_v f_n] in IH. rewrite <- V1.
    destruct (drain false f (f_v s1) (T - 8) (if b =? 0 then nr0 + 1 else 0) (b :: out)) as ((T' & z) & o).
    assert (P1 : (f_n s1 - 8)%Z = Z.of_N (T - 8)) by lia.
    exact (IH R1 P1 E).
  - inversion E; subst s'. split; [exact R|]. split; [exact Hn|reflexivity].
Qed.

Definition rep (cap : nat) (s : fsw) (w : wstate) : Prop :=
  repb cap s (wrev w) /\ (f_err s = false -> f_n s = Z.of_N (wn w) /\ f_v s = wv w).

Lemma land_mask64 bits n : bits < two64 -> N.land (bits mod two64) (mask64 n) = N.land bits (N.ones n).
Proof.
  intros H. rewrite (N.mod_small bits two64 H). unfold mask64. destruct (n <? 64) eqn:E.
  - rewrite N.ones_equiv. rewrite <- N.sub_1_r. reflexivity.
  - apply N.ltb_ge in E. rewrite N.land_ones.
    assert (two64 <= 2 ^ n) by (change two64 with (2 ^ 64); apply N.pow_le_mono_r; lia).
    rewrite (N.mod_small bits (2 ^ n)) by lia.
    change (two64 - 1) with (N.ones 64). rewrite N.land_ones. apply N.mod_small. exact H.
Qed.

(* err state: later output of the C13 writer lies beyond the capacity *)
Lemma repb_err_app cap s out new : f_err s = true -> repb cap s out -> repb cap s (new ++ out).
Proof.
  intros Er (L & R). unfold repb. rewrite Er in *. destruct R as (Ro & Rb). split; [exact L|]. split; [exact Ro|].
  rewrite rev_app_distr, firstn_app.
  assert ((cap <= length (rev out))%nat) by (apply (firstn_full_len (f_buf s)); assumption).
  replace (cap - length (rev out))%nat with O by lia. cbn [firstn]. rewrite app_nil_r. exact Rb.
Qed.

Lemma drain_app : forall fuel V T z out, exists nw, snd (drain false fuel V T z out) = nw ++ out.
Proof.
  induction fuel as [|f IH]; intros V T z out; cbn [drain]; [exists []; reflexivity|].
  destruct (8 <=? T); [|exists []; reflexivity]. cbn [emit_byte andb].
  destruct (IH V (T - 8) (if N.land (N.shiftr V (T - 8)) 255 =? 0 then z + 1 else 0)
               (N.land (N.shiftr V (T - 8)) 255 :: out)) as (nw & D).
  exists (nw ++ [N.land (N.shiftr V (T - 8)) 255]). rewrite <- app_assoc. exact D.
Qed.

Lemma bits_sim cap s w bits n s' : rep cap s w -> bits < two64 -> fsw_bits s bits n = Ok s' ->
  rep cap s' (write_plain w bits n).
Proof.
  intros (R & Hv) Hb E. unfold fsw_bits in E. unfold write_plain, write_gen.
  destruct (f_err s) eqn:Er.
  - inversion E; subst s'; clear E.
    destruct (drain_app (S (N.to_nat ((wn w + n) / 8)))
                (N.lor (u64 (N.shiftl (wv w) n)) (N.land bits (N.ones n))) (wn w + n) (wnr0 w) (wrev w)) as (nw & X).
    revert X.
    destruct (drain false _ _ _ _ _) as ((T' & z) & o). cbn [snd]. intros ->.
    split; [|intros C; rewrite Er in C; discriminate C]. cbn [wrev]. apply repb_err_app; assumption.
  - destruct (Hv eq_refl) as (Hn & Hvv). cbv zeta in E.
    rewrite land_mask64 in E by exact Hb. rewrite Hvv, Hn in E. unfold u64.
    replace (Z.to_nat ((Z.of_N (wn w) + Z.of_N n) / 8)) with (N.to_nat ((wn w + n) / 8)) in E
      by (rewrite <- N2Z.inj_add; change 8%Z with (Z.of_N 8); rewrite <- N2Z.inj_div, <- Z_N_nat, N2Z.id; reflexivity).
    set (V := N.lor (N.shiftl (wv w) n mod two64) (N.land bits (N.ones n))) in *.
    set (s0 := mkFsw (f_buf s) (f_off s) (Z.of_N (wn w) + Z.of_N n) V false) in *.
    destruct (fsw_drain (S (N.to_nat ((wn w + n) / 8))) s0) as [s2| | |] eqn:E2; cbn [rbind] in E; try discriminate E.
    inversion E; subst s'; clear E.
    assert (P0 : repb cap s0 (wrev w)).
    { destruct R as (L & R). unfold repb, s0. cbn [f_buf f_off f_err]. rewrite Er in R. split; assumption. }
    assert (P1 : f_n s0 = Z.of_N (wn w + n)) by (unfold s0; cbn [f_n]; lia).
    pose proof (drain_sim cap (S (N.to_nat ((wn w + n) / 8))) s0 (wn w + n) (wnr0 w) (wrev w) s2 P0 P1 E2) as D.
    change (f_v s0) with V in D.
    change 18446744073709551616 with two64. fold V.
    revert D.
    destruct (drain false (S (N.to_nat ((wn w + n) / 8))) V (wn w + n) (wnr0 w) (wrev w)) as ((T' & z) & o).
    intros (A & B & C).
    split.
    + destruct A as (L & A). unfold repb. cbn [f_buf f_off f_err wrev]. split; assumption.
    + intros _. cbn [f_n f_v wn wv]. split; [exact B|]. rewrite C. reflexivity.
Qed.

Lemma land255_mod64 x : N.land (x mod two64) 255 = N.land x 255.
Proof.
  change 255 with (N.ones 8). rewrite !N.land_ones.
  change two64 with (2 ^ 8 * 2 ^ 56). rewrite N.mod_mul_r by (cbn; lia).
  rewrite (N.mul_comm (2 ^ 8)), N.mod_add by (cbn; lia). apply N.mod_mod. cbn; lia.
Qed.

Lemma flush_sim cap s w s' : rep cap s w -> fsw_flush s = Ok s' -> rep cap s' (flush_plain w).
Proof.
  intros (R & Hv) E. unfold fsw_flush in E. unfold flush_plain.
  destruct (f_err s) eqn:Er.
  - inversion E; subst s'; clear E.
    destruct (wn w =? 0); [split; [exact R|intros C; rewrite Er in C; discriminate C]|].
    split; [|intros C; rewrite Er in C; discriminate C]. cbn [wrev].
    apply (repb_err_app cap s (wrev w) [_]); assumption.
  - destruct (Hv eq_refl) as (Hn & Hvv).
    replace (f_n s =? 0)%Z with (wn w =? 0) in E by (rewrite Hn; apply eq_true_iff_eq; rewrite N.eqb_eq, Z.eqb_eq; lia).
    destruct (wn w =? 0) eqn:Z0.
    + inversion E; subst s'. split; [exact R|intros _; split; assumption].
    + rewrite land255_mod64 in E. destruct (u8_repb cap s _ (wrev w) s' R E) as (R1 & N1 & V1).
      replace (Z.to_N (8 - f_n s)) with (8 - wn w) in R1.
      2:{ rewrite Hn. apply N.eqb_neq in Z0. destruct (N.le_gt_cases (wn w) 8); [lia|].
          replace (8 - wn w) with 0 by lia. lia. }
      rewrite Hvv in R1. split; [exact R1|]. intros _. cbn [wn wv]. rewrite N1, V1. split; assumption.
Qed.

Definition op_u64 (o : wop) : bool :=
  match o with WBits v _ => v <? two64 | _ => true end.

Lemma step_sim cap s w o s' : rep cap s w -> op_u64 o = true -> fsw_step s o = Ok s' ->
  rep cap s' (wstep_plain w o).
Proof.
  intros R Ho E. destruct o; cbn [fsw_step wstep_plain op_u64] in *;
    try (inversion E; subst s'; exact R).
  - apply (bits_sim cap s w v w0 s' R); [apply N.ltb_lt; exact Ho|exact E].
  - apply (bits_sim cap s w (b2n b) 1 s' R); [destruct b; reflexivity|exact E].
  - apply (flush_sim cap s w s' R E).
Qed.

Lemma run_sim cap : forall ops s w s', rep cap s w -> forallb op_u64 ops = true -> fsw_run s ops = Ok s' ->
  rep cap s' (fold_left wstep_plain ops w).
Proof.
  induction ops as [|o t IH]; intros s w s' R Ho E; cbn [fsw_run fold_left forallb] in *.
  - inversion E; subst s'; exact R.
  - apply andb_prop in Ho. destruct Ho as (H1 & H2).
    destruct (fsw_step s o) as [s1| | |] eqn:E1; cbn [rbind] in E; try discriminate E.
    apply (IH s1 (wstep_plain w o) s'); [apply (step_sim cap s w o s1); assumption|exact H2|exact E].
Qed.

(* every capacity, every sequence of writes of uint values: the bytes of C17's total model *)
Lemma fsw_payload_is_fsw_bytes (cap : N) ops bs e :
  forallb op_u64 ops = true -> fsw_payload_p (Z.of_N cap) ops = Ok (bs, e) -> bs = fsw_bytes cap ops.
Proof.
  intros Ho E. unfold fsw_payload_p in E.
  unfold fsw_new in E. replace (Z.of_N cap <? 0)%Z with false in E by (symmetry; apply Z.ltb_ge; lia).
  cbn [rbind] in E. replace (Z.to_nat (Z.of_N cap)) with (N.to_nat cap) in E by lia.
  set (s0 := mkFsw (repeat 0 (N.to_nat cap)) 0 0 0 false) in *.
  assert (R0 : rep (N.to_nat cap) s0 winit).
  { split; [|intros _; split; reflexivity]. unfold repb, s0. cbn [f_buf f_off f_err wrev winit].
    rewrite repeat_length. repeat split; try lia. }
  destruct (fsw_run s0 ops) as [s1| | |] eqn:E1; cbn [rbind] in E; try discriminate E.
  pose proof (run_sim (N.to_nat cap) ops s0 winit s1 R0 Ho E1) as R1.
  destruct (fsw_flush s1) as [s2| | |] eqn:E2; cbn [rbind] in E; try discriminate E.
  pose proof (flush_sim (N.to_nat cap) s1 _ s2 R1 E2) as R2.
  destruct (fsw_bytes_p s2) as [b2| | |] eqn:E3; cbn [rbind] in E; try discriminate E.
  inversion E; subst bs e; clear E.
  unfold fsw_bytes, run_writer_plain. rewrite fold_left_app. cbn [fold_left wstep_plain].
  set (w2 := flush_plain (fold_left wstep_plain ops winit)) in *.
  destruct R2 as ((L & R) & _). unfold wout.
  unfold fsw_bytes_p, pslice in E3.
  destruct ((0 <=? 0) && (0 <=? f_off s2) && (f_off s2 <=? lenZ (f_buf s2)))%Z; [|discriminate E3].
  inversion E3; subst b2; clear E3. cbn [skipn Z.to_nat]. rewrite Z.sub_0_r.
  destruct (f_err s2).
  - destruct R as (Ro & Rb). rewrite Ro, Nat2Z.id. rewrite <- L at 1. rewrite firstn_all. exact Rb.
  - destruct R as (Ro & Rb). rewrite Rb. symmetry. apply firstn_all2.
    rewrite <- Rb, firstn_length. lia.
Qed.

Lemma tc_payload_is_c17 cs : forallb op_u64 (tc_ops cs) = true ->
  exists e, tc_payload_p cs = Ok (tc_payload cs, e).
Proof.
  intros H. destruct (tc_payload_total cs) as (bs & e & E & _). exists e. rewrite E.
  unfold tc_payload_p in E. rewrite (fsw_payload_is_fsw_bytes _ _ _ _ H E). reflexivity.
Qed.

Lemma pt_payload_is_c17 m : forallb op_u64 (pt_ops m) = true ->
  exists e, pt_payload_p m = Ok (pt_payload m, e).
Proof.
  intros H. destruct (pt_payload_total m) as (bs & e & E & _). exists e. rewrite E.
  unfold pt_payload_p in E. rewrite (fsw_payload_is_fsw_bytes _ _ _ _ H E). reflexivity.
Qed.
