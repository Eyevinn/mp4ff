(* C16WalkProofs.v — totality, linear tick bound and linear append bound of the length-field
   walkers (C16Model.v).  No axioms. *)
From V.lib Require Import Base.
From V.c16 Require Import C16Model C16ResProofs.

Local Open Scope Z_scope.

Lemma lenZ_nonneg bs : 0 <= lenZ bs.
Proof. unfold lenZ. lia. Qed.

Lemma lenZ_lenN bs : lenZ bs = Z.of_N (lenN bs).
Proof. unfold lenZ, lenN. lia. Qed.

(* ---------- partial operations succeed inside their bounds ---------- *)
Lemma idx_ok bs i : 0 <= i < lenZ bs -> exists b, idx bs i = Ok b.
Proof.
  intros H. unfold idx.
  replace ((0 <=? i) && (i <? lenZ bs))%bool with true by lia.
  destruct (nth_error bs (Z.to_nat i)) eqn:E; [eauto|].
  apply nth_error_None in E. unfold lenZ in H. lia.
Qed.

Lemma slice_ok bs lo hi : 0 <= lo -> lo <= hi -> hi <= lenZ bs ->
  exists l, slice bs lo hi = Ok l /\ length l = Z.to_nat (hi - lo).
Proof.
  intros H1 H2 H3. unfold slice.
  replace ((0 <=? lo) && (lo <=? hi) && (hi <=? lenZ bs))%bool with true by lia.
  eexists. split; [reflexivity|].
  rewrite firstn_length, skipn_length. unfold lenZ in H3. lia.
Qed.

Lemma be32_ok l : (4 <= length l)%nat -> exists z, be32 l = Ok z /\ 0 <= z.
Proof.
  intros H. destruct l as [|a [|b [|c [|d r]]]]; cbn [length] in H; try lia.
  cbn [be32]. eexists. split; [reflexivity|]. lia.
Qed.

Lemma past_end_false bs pos nl : past_end bs pos nl = false -> pos + nl <= lenZ bs.
Proof. unfold past_end. lia. Qed.

(* ---------- the generic loop ---------- *)
Section Walk.
  Context {St : Type}.
  Variable bs : list N.
  Variable size : St -> N.
  Variable allow_err : bool.
  Variable body : Z -> Z -> St -> res (ctl St).

  (* one round from `pos`: the next position is not behind `pos` and not behind the end of the sample;
     at most one element is appended *)
  Definition round_ok (pos : Z) (st : St) (c : ctl St) : Prop :=
    match c with
    | Cont pos' st' => pos <= pos' <= lenZ bs /\ (size st' <= size st + 1)%N
    | Stop st' => (size st' <= size st + 1)%N
    end.

  Definition body_ok : Prop :=
    forall pos nl st, 4 <= pos < lenZ bs -> 0 <= nl -> val allow_err (round_ok pos st) (body pos nl st).

  Hypothesis Hbody : body_ok.

  (* every round moves at least 4 bytes forward (the length field), so fuel |bs|/4 + 1 is enough *)
  Lemma walk_total : forall fuel pos st t,
      0 <= pos <= lenZ bs -> lenZ bs - pos < 4 * Z.of_nat fuel ->
      val allow_err (fun r => (t <= snd r)%N /\ 4 * Z.of_N (snd r - t) <= lenZ bs - pos /\
                              (size (fst r) <= size st + (snd r - t))%N)
          (walk body fuel bs pos st t).
  Proof.
    induction fuel as [|f IH]; intros pos st t Hp Hf; [lia|].
    cbn [walk]. destruct (pos <? lenZ bs - 4) eqn:Hc; [|cbn [val round_ok fst snd]; lia].
    destruct (slice_ok bs pos (pos + 4)) as (hdr & -> & Hl); try lia. cbn [rbind].
    destruct (be32_ok hdr) as (nl & -> & Hnl); [lia|]. cbn [rbind].
    apply (val_bind (Q := round_ok (pos + 4) st)); [apply Hbody; lia|].
    intros [pos' st'|st'] Hr; cbn in Hr; [|cbn [val round_ok fst snd]; lia].
    apply (val_weaken (IH pos' st' (t + 1)%N ltac:(lia) ltac:(lia))).
    intros [st2 t2]. cbn [val round_ok fst snd]. lia.
  Qed.

  Lemma walk_from_start st :
    val allow_err (fun r => (4 * snd r <= lenN bs)%N /\ (size (fst r) <= size st + snd r)%N)
        (walk body (walk_fuel bs) bs 0 st 0).
  Proof.
    apply (val_weaken (walk_total (walk_fuel bs) 0 st 0%N ltac:(unfold lenZ; lia) ltac:(unfold walk_fuel, lenZ; lia))).
    intros [st' t']. cbn [fst snd]. rewrite lenZ_lenN. lia.
  Qed.
End Walk.

(* ---------- the bodies ---------- *)
Lemma avc_nalus_body_ok bs : body_ok bs (@lenN (list N)) true (avc_nalus_body bs).
Proof.
  intros pos nl st Hp Hnl. unfold avc_nalus_body.
  destruct (past_end bs pos nl) eqn:E; [reflexivity|]. apply past_end_false in E.
  destruct (slice_ok bs pos (pos + nl)) as (s & -> & _); try lia.
  cbn [rbind val round_ok]. rewrite lenN_cons. lia.
Qed.

Lemma types_body_ok ty bs : body_ok bs (@lenN N) false (types_body ty bs).
Proof.
  intros pos nl st Hp Hnl. unfold types_body.
  destruct (idx_ok bs pos) as (b & ->); [lia|]. cbn [rbind].
  destruct (past_end bs pos nl) eqn:E; cbn [rbind val round_ok]; rewrite lenN_cons; [lia|].
  apply past_end_false in E. lia.
Qed.

Lemma types_upto_body_ok ty isvid bs : body_ok bs (@lenN N) false (types_upto_body ty isvid bs).
Proof.
  intros pos nl st Hp Hnl. unfold types_upto_body.
  destruct (idx_ok bs pos) as (b & ->); [lia|]. cbn [rbind].
  destruct (past_end bs pos nl) eqn:E; [|destruct (isvid (ty b))]; cbn [rbind val round_ok]; rewrite lenN_cons; try lia.
  apply past_end_false in E. lia.
Qed.

Lemma contains_body_ok ty want bs : body_ok bs (fun _ : bool => 0%N) false (contains_body ty want bs).
Proof.
  intros pos nl st Hp Hnl. unfold contains_body.
  destruct (idx_ok bs pos) as (b & ->); [lia|]. cbn [rbind].
  destruct (ty b =? want)%N; [|destruct (past_end bs pos nl) eqn:E]; cbn [rbind val round_ok]; try lia.
  apply past_end_false in E. lia.
Qed.

Definition ps2_size (st : list (list N) * list (list N)) : N := lenN (fst st) + lenN (snd st).

(* a parameter set is kept (one element more), a video unit stops the walk, anything else is skipped *)
Lemma avc_ps_body_ok bs : body_ok bs ps2_size false (avc_ps_body bs).
Proof.
  intros pos nl st Hp Hnl. unfold avc_ps_body.
  destruct (past_end bs pos nl) eqn:E; [cbn [rbind val round_ok]; lia|]. apply past_end_false in E.
  destruct (idx_ok bs pos) as (b & ->); [lia|]. cbn [rbind].
  destruct (slice_ok bs pos (pos + nl)) as (s & -> & _); try lia.
  unfold ps2_size.
  destruct (avc_nalu_type b =? 7)%N; [|destruct (avc_nalu_type b =? 8)%N; [|destruct (avc_is_video _)]];
    cbn [rbind val round_ok fst snd]; rewrite ?lenN_cons; lia.
Qed.

Definition ps3_size (st : ps3) : N := let '(v, s, p) := st in lenN v + lenN s + lenN p.

Lemma hevc_ps_body_ok bs : body_ok bs ps3_size false (hevc_ps_body bs).
Proof.
  intros pos nl [[v s] p] Hp Hnl. unfold hevc_ps_body.
  destruct (past_end bs pos nl) eqn:E; [cbn [rbind val round_ok]; lia|]. apply past_end_false in E.
  destruct (idx_ok bs pos) as (b & ->); [lia|]. cbn [rbind].
  destruct (slice_ok bs pos (pos + nl)) as (x & -> & _); try lia.
  destruct (hevc_nalu_type b =? 32)%N; [|destruct (hevc_nalu_type b =? 33)%N;
    [|destruct (hevc_nalu_type b =? 34)%N; [|destruct (hevc_is_video _)]]];
    cbn [rbind val round_ok ps3_size]; rewrite ?lenN_cons; lia.
Qed.

Local Open Scope N_scope.

Lemma lenN_rev {A} (l : list A) : lenN (rev l) = lenN l.
Proof. unfold lenN. rewrite rev_length. reflexivity. Qed.

(* ---------- per-function statements ---------- *)
(* ticks (loop iterations) at most k|bs|/4, appended elements at most ticks *)
Definition linear {A} (k : N) (bs : list N) (size : A -> N) (r : A * N) : Prop :=
  4 * snd r <= k * lenN bs /\ size (fst r) <= snd r.

Lemma avc_get_nalus_total bs :
  val true (fun r => 4 * snd r <= lenN bs /\ lenN (fst r) <= snd r) (avc_get_nalus_from_sample bs).
Proof.
  unfold avc_get_nalus_from_sample. destruct (lenZ bs <? 4)%Z; [reflexivity|].
  apply (val_bind (walk_from_start bs _ true _ (avc_nalus_body_ok bs) [])).
  intros [st t]. cbn [rbind val fst snd]. rewrite lenN_rev, lenN_nil. lia.
Qed.

Lemma find_nalu_types_total ty bs : val false (linear 1 bs (@lenN N)) (find_nalu_types ty bs).
Proof.
  unfold linear, find_nalu_types. destruct (lenZ bs <? 4)%Z; [cbn [val fst snd]; split; [lia|reflexivity]|].
  apply (val_bind (walk_from_start bs _ false _ (types_body_ok ty bs) [])).
  intros [st t]. cbn [rbind val fst snd]. rewrite lenN_rev, lenN_nil. lia.
Qed.

Lemma find_nalu_types_upto_total ty isvid bs :
  val false (linear 1 bs (@lenN N)) (find_nalu_types_upto ty isvid bs).
Proof.
  unfold linear, find_nalu_types_upto. destruct (lenZ bs <? 4)%Z; [cbn [val fst snd]; split; [lia|reflexivity]|].
  apply (val_bind (walk_from_start bs _ false _ (types_upto_body_ok ty isvid bs) [])).
  intros [st t]. cbn [rbind val fst snd]. rewrite lenN_rev, lenN_nil. lia.
Qed.

Lemma avc_contains_total bs want : val false (linear 1 bs (fun _ => 0)) (avc_contains_nalu_type bs want).
Proof.
  unfold linear.
  apply (val_weaken (walk_from_start bs _ false _ (contains_body_ok avc_nalu_type want bs) false)).
  intros [st t]. cbn [rbind val fst snd]. lia.
Qed.

Lemma hevc_contains_total bs want : val false (linear 1 bs (fun _ => 0)) (hevc_contains_nalu_type bs want).
Proof.
  unfold linear, hevc_contains_nalu_type. destruct (lenZ bs <? 4)%Z; [cbn [rbind val fst snd]; lia|].
  apply (val_weaken (walk_from_start bs _ false _ (contains_body_ok hevc_nalu_type want bs) false)).
  intros [st t]. cbn [rbind val fst snd]. lia.
Qed.

(* the functions that scan the type list afterwards: ticks = walk ticks + list length <= 2*walk ticks *)
Lemma after_types_total (f : list N -> bool) (r : res (list N * N)) bs :
  val false (linear 1 bs (@lenN N)) r ->
  val false (linear 2 bs (fun _ => 0)) (do x <- r; Ok (f (fst x), snd x + lenN (fst x))).
Proof. unfold linear. intros H. apply (val_bind H). intros [v t]. cbn [rbind val fst snd]. lia. Qed.

Lemma avc_has_ps_total bs : val false (linear 2 bs (fun _ => 0)) (avc_has_parameter_sets bs).
Proof.
  apply (after_types_total (fun l => avc_has_ps_scan l false false)), find_nalu_types_upto_total.
Qed.

Lemma hevc_has_ps_total bs : val false (linear 2 bs (fun _ => 0)) (hevc_has_parameter_sets bs).
Proof.
  apply (after_types_total (fun l => hevc_has_ps_scan l false false false)), find_nalu_types_upto_total.
Qed.

Lemma hevc_is_rap_total bs : val false (linear 2 bs (fun _ => 0)) (hevc_is_rap_sample bs).
Proof. apply (after_types_total (existsb (in_range 16 23))), find_nalu_types_total. Qed.

Lemma hevc_is_idr_total bs : val false (linear 2 bs (fun _ => 0)) (hevc_is_idr_sample bs).
Proof. apply (after_types_total (existsb (in_range 19 20))), find_nalu_types_total. Qed.

Lemma avc_get_ps_total bs : val false (linear 1 bs ps2_size) (avc_get_parameter_sets bs).
Proof.
  apply (val_bind (walk_from_start bs _ false _ (avc_ps_body_ok bs) ([], []))).
  intros [[s p] t]. unfold linear, ps2_size. cbn [rbind val fst snd]. rewrite !lenN_rev, !(@lenN_nil (list N)). lia.
Qed.

Lemma hevc_get_ps_total bs : val false (linear 1 bs ps3_size) (hevc_get_parameter_sets bs).
Proof.
  apply (val_bind (walk_from_start bs _ false _ (hevc_ps_body_ok bs) ([], [], []))).
  intros [[[v s] p] t]. unfold linear. cbn [rbind val fst snd ps3_size]. rewrite !lenN_rev, !(@lenN_nil (list N)). lia.
Qed.

(* ---------- ConvertSampleToByteStream ---------- *)
Local Open Scope Z_scope.

Lemma put4_ok buf pos v : 0 <= pos -> pos + 4 <= lenZ buf -> length v = 4%nat ->
  exists b, put4 buf pos v = Ok b /\ lenZ b = lenZ buf.
Proof.
  intros H1 H2 Hv. unfold put4.
  replace ((0 <=? pos) && (pos + 4 <=? lenZ buf))%bool with true by lia.
  eexists. split; [reflexivity|]. unfold lenZ in *.
  rewrite !app_length, firstn_length, skipn_length, Hv. lia.
Qed.

(* the walk again, on a buffer that is rewritten on the way and keeps its length *)
Lemma convert_loop_total : forall fuel buf pos t,
    0 <= pos <= lenZ buf -> lenZ buf - pos < 4 * Z.of_nat fuel ->
    val false (fun r => (t <= snd r)%N /\ 4 * Z.of_N (snd r - t) <= lenZ buf - pos /\ lenZ (fst r) = lenZ buf)
        (convert_loop fuel buf pos t).
Proof.
  induction fuel as [|f IH]; intros buf pos t Hp Hf; [lia|].
  cbn [convert_loop]. destruct (pos <=? lenZ buf - 4) eqn:Hc; [|cbn [rbind val fst snd]; lia].
  destruct (slice_ok buf pos (pos + 4)) as (hdr & -> & Hl); try lia. cbn [rbind].
  destruct (be32_ok hdr) as (nl & -> & Hnl); [lia|]. cbn [rbind].
  destruct (put4_ok buf pos [0; 0; 0; 1]%N) as (b & -> & Hb); try lia; [reflexivity|].
  cbn [rbind]. destruct (past_end b (pos + 4) nl) eqn:E; [cbn [rbind val fst snd]; lia|]. apply past_end_false in E.
  apply (val_weaken (IH b (pos + 4 + nl) (t + 1)%N ltac:(lia) ltac:(lia))).
  intros [b2 t2]. cbn [rbind val fst snd]. lia.
Qed.

Lemma convert_total bs :
  val false (fun r => (4 * snd r <= lenN bs)%N /\ lenN (fst r) = lenN bs) (convert_sample_to_byte_stream bs).
Proof.
  apply (val_weaken (convert_loop_total (walk_fuel bs) bs 0 0%N ltac:(unfold lenZ; lia)
                               ltac:(unfold walk_fuel, lenZ; lia))).
  intros [b t]. cbn [fst snd]. rewrite !lenZ_lenN. lia.
Qed.
