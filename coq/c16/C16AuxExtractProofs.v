(* C16AuxExtractProofs.v — sei.ExtractSEIData is total for EVERY byte list.
   About `extract_sei_data` (the C17 model, imported read-only) and `extract_sei_data_go` (C16AuxModel.v:
   the same loop with ReadBytes as the Go text runs it — allocate the requested size, loop that many
   times — and with the costs recorded):
     - the two return the same result (so the shortcut of the C17 model is sound);
     - never XFuel: neither the outer loop nor the two 0xFF-run loops exhaust their fuel;
     - every message costs at least 16 bits of input plus 8 bits per payload byte:
         2 * #messages + total payload bytes <= |data|;
     - the 0xFF-run loops make at most |data| + 2 reads in total;
     - when the extractor does not fail, the bytes requested from ReadBytes are the payload bytes returned;
     - for byte inputs (every element < 256) every requested size is at most 255 per size byte read, so
       the bytes allocated and the ReadBytes iterations are at most 255 * (|data| + 2) in total, also
       when the last request exceeds the input and the extractor fails.
   Uses the reader invariants of C16ReaderProofs / C16SeiProofs (rwf, bits_left, rok) and, for the value
   bound only, read_spec / read_fail of C13ReaderProofs.  No axioms. *)
From V.lib Require Import Base.
From V.c13 Require Import C13Model C13Bits C13ReaderProofs.
From V.c16 Require Import C16ReaderProofs C16SeiProofs.
From V.c17 Require Import C17Spec C17Model.
From V.c16 Require Import C16AuxModel.

(* ------------------------------------------------------------------ reader facts *)
Lemma rok_bits s : rok s -> rerr s = false -> rwf s /\ bits_left s <= 8 * lenN (rdata s) + 7.
Proof.
  intros [H|H] He; [congruence|]. split; [exact H|]. destruct H as [Hp Hn]. unfold bits_left. lia.
Qed.

Lemma more_rbsp_state s o s' : more_rbsp_data s = (Some o, s') -> s' = s.
Proof.
  unfold more_rbsp_data. destruct (rerr s); [discriminate|].
  destruct (read s 1) as [b s1]. destruct (rerr s1); [discriminate|].
  destruct (negb (b =? 1)); intros H; injection H; auto.
Qed.

(* ---------- the 0xFF-run loop ---------- *)
Lemma read_ff_t_fst fuel wrap : forall s acc k,
  read_ff fuel wrap s acc =
  match read_ff_t fuel wrap s acc k with Some (v, s1, _) => Some (v, s1) | None => None end.
Proof.
  induction fuel as [|f IH]; intros s acc k; cbn [read_ff read_ff_t]; [reflexivity|].
  destruct (read s 8) as [b s1]. destruct (b =? 255); [apply IH|reflexivity].
Qed.

(* never out of fuel; at least one read; every read but a failing last one consumes 8 bits *)
Lemma read_ff_t_total wrap : forall fuel s acc k0,
  rok s -> (0 < fuel)%nat -> (rerr s = false -> bits_left s < 8 * N.of_nat fuel) ->
  exists v s1 k, read_ff_t fuel wrap s acc k0 = Some (v, s1, k) /\
    rok s1 /\ rdata s1 = rdata s /\ k0 < k /\
    (rerr s = true -> rerr s1 = true /\ k = k0 + 1) /\
    (rerr s = false -> 8 * (k - k0) <= bits_left s + 8) /\
    (rerr s1 = false -> rerr s = false /\ bits_left s1 + 8 * (k - k0) <= bits_left s).
Proof.
  induction fuel as [|f IH]; intros s acc k0 Hok Hpos Hf; [lia|].
  cbn [read_ff_t].
  pose proof (read_rok s 8 Hok) as (Hr1 & Hr2 & Hr3). pose proof (read_err_zero s 8) as Hz.
  destruct (read s 8) as [b s1]. cbn [fst snd] in *.
  destruct (b =? 255) eqn:Hb.
  - assert (He1 : rerr s1 = false).
    { destruct (rerr s1); [|reflexivity]. specialize (Hz eq_refl). subst b. discriminate. }
    destruct (Hr3 He1) as (He & Hbits). specialize (Hf He).
    destruct (IH s1 (wrap (acc + b)) (k0 + 1) Hr1) as (v & s2 & k & Hrun & Hok2 & Hd2 & Hk & _ & Hc & Hd);
      [lia|intros _; lia|].
    exists v, s2, k. split; [exact Hrun|]. split; [exact Hok2|]. split; [congruence|]. split; [lia|].
    split; [intros; congruence|]. specialize (Hc He1).
    split; [intros _; lia|]. intros He2. destruct (Hd He2) as (_ & Hd'). split; [exact He|lia].
  - exists (wrap (acc + b)), s1, (k0 + 1). split; [reflexivity|]. split; [exact Hr1|]. split; [exact Hr2|].
    split; [lia|]. replace (k0 + 1 - k0) with 1 by lia.
    split.
    { intros He. split; [|reflexivity]. destruct (rerr s1) eqn:He1; [reflexivity|]. destruct (Hr3 eq_refl). congruence. }
    split; [intros _; lia|]. intros He1. destruct (Hr3 He1) as (He & Hbits). split; [exact He|lia].
Qed.

(* ---------- ReadBytes ---------- *)
Lemma read_bytes_rok : forall k s, rok s ->
  rok (snd (read_bytes k s)) /\ rdata (snd (read_bytes k s)) = rdata s /\
  length (fst (read_bytes k s)) = k /\
  (rerr (snd (read_bytes k s)) = false ->
   rerr s = false /\ bits_left (snd (read_bytes k s)) + 8 * N.of_nat k <= bits_left s).
Proof.
  induction k as [|k IH]; intros s Hok; cbn [read_bytes].
  - cbn [fst snd length]. split; [exact Hok|]. split; [reflexivity|]. split; [reflexivity|].
    intros He. split; [exact He|lia].
  - pose proof (read_rok s 8 Hok) as (Hr1 & Hr2 & Hr3). destruct (read s 8) as [b s1]. cbn [snd] in *.
    specialize (IH s1 Hr1). destruct (read_bytes k s1) as [l s2]. cbn [fst snd] in *.
    destruct IH as (I1 & I2 & I3 & I4). split; [exact I1|]. split; [congruence|]. split; [cbn [length]; lia|].
    intros He2. destruct (I4 He2) as (He1 & Hb1). destruct (Hr3 He1) as (He & Hb). split; [exact He|lia].
Qed.

(* everything about the Go-shaped ReadBytes, incl. agreement with the shortcut of the C17 model *)
Lemma read_bytes_go_spec s sz pl' s3' al it :
  rok s -> read_bytes_go s sz = (pl', s3', al, it) ->
  rerr (snd (read_payload s sz)) = rerr s3' /\
  (rerr s3' = false -> read_payload s sz = (pl', s3')) /\
  it = al /\ (rerr s = false -> al = sz) /\ (rerr s = true -> al = 0 /\ rerr s3' = true) /\
  rok s3' /\ rdata s3' = rdata s /\
  (rerr s3' = false -> rerr s = false /\ lenN pl' = sz /\ bits_left s3' + 8 * sz <= bits_left s).
Proof.
  intros Hok. unfold read_bytes_go, read_payload. destruct (rerr s) eqn:He.
  - intros H. injection H as <- <- <- <-. cbn [snd]. rewrite He.
    repeat split; try reflexivity; try congruence; try assumption.
  - pose proof (read_bytes_rok (N.to_nat sz) s Hok) as (B1 & B2 & B3 & B4).
    destruct (read_bytes (N.to_nat sz) s) as [l s'] eqn:Hrb. cbn [fst snd] in *.
    intros H. injection H as <- <- <- <-.
    assert (Hshort : lenN (rdata s) < sz -> rerr s' = true).
    { intros Hlt. destruct (rerr s') eqn:He'; [reflexivity|]. destruct (B4 eq_refl) as (_ & Hb).
      destruct (rok_bits s Hok He) as (_ & Hle). lia. }
    destruct (N.ltb_spec (lenN (rdata s)) sz) as [Hlt|Hge].
    + cbn [snd rerr]. rewrite (Hshort Hlt).
      repeat split; try reflexivity; try congruence; try assumption.
    + cbn [snd].
      split; [reflexivity|]. split; [intros He'; rewrite He'; reflexivity|].
      split; [reflexivity|]. split; [reflexivity|]. split; [congruence|]. split; [exact B1|]. split; [exact B2|].
      intros He'. rewrite He'. destruct (B4 He') as (_ & Hb). split; [reflexivity|]. split; [unfold lenN; lia|lia].
Qed.

(* ------------------------------------------------------------------ agreement with the C17 model *)
(* the fuel of the two 0xFF-run loops of one iteration covers what is left of the data *)
Lemma read_ff_fuel s s1 : rok s1 -> rdata s1 = rdata s -> rerr s1 = false ->
  bits_left s1 < 8 * N.of_nat (S (length (rdata s))).
Proof. intros Hok Hd He. destruct (rok_bits s1 Hok He) as (_ & Hle). rewrite Hd in Hle. unfold lenN in Hle. lia. Qed.

Lemma extract_loop_go_fst : forall f s, rok s -> fst (extract_loop_go f s) = extract_loop f s.
Proof.
  induction f as [|f IH]; intros s Hok; cbn [extract_loop_go extract_loop]; [reflexivity|].
  rewrite (read_ff_t_fst _ u64 s 0 0).
  destruct (read_ff_t_total u64 (S (length (rdata s))) s 0 0 Hok ltac:(lia) (read_ff_fuel s s Hok eq_refl))
    as (ty & s1 & k1 & -> & Hok1 & Hd1 & _).
  rewrite (read_ff_t_fst _ u32 s1 0 0).
  destruct (read_ff_t_total u32 (S (length (rdata s))) s1 0 0 Hok1 ltac:(lia) (read_ff_fuel s s1 Hok1 Hd1))
    as (sz & s2 & k2 & -> & Hok2 & Hd2 & _).
  destruct (read_bytes_go s2 sz) as [[[pl' s3'] al] it] eqn:Hgo.
  destruct (read_bytes_go_spec _ _ _ _ _ _ Hok2 Hgo) as (G1 & G2 & _ & _ & _ & G6 & _ & _).
  destruct (read_payload s2 sz) as [pl s3] eqn:Hpl. cbn [snd] in G1. rewrite G1.
  destruct (rerr s3') eqn:He3; [reflexivity|]. specialize (G2 eq_refl). injection G2 as -> ->.
  destruct (more_rbsp_data s3') as [[[|]|] s4] eqn:Hm; try reflexivity.
  apply more_rbsp_state in Hm. subst s4.
  specialize (IH s3' G6). destruct (extract_loop_go f s3') as [r c]. cbn [fst] in *. congruence.
Qed.

(* ------------------------------------------------------------------ bounds *)
Lemma xres_msgs_xcons x r : r <> XErr -> r <> XFuel -> xres_msgs (xcons x r) = x :: xres_msgs r.
Proof. destruct r; cbn; congruence. Qed.

Lemma xres_eq_err r : r = XErr \/ r <> XErr.
Proof. destruct r; [right|right|left|right]; congruence. Qed.

Lemma payload_bytes_cons ty pl l : payload_bytes ((ty, pl) :: l) = lenN pl + payload_bytes l.
Proof. reflexivity. Qed.

Lemma extract_loop_go_total : forall f s,
  rwf s -> rerr s = false -> bits_left s < 16 * N.of_nat f ->
  exists r c, extract_loop_go f s = (r, c) /\ r <> XFuel /\
    16 * lenN (xres_msgs r) + 8 * payload_bytes (xres_msgs r) <= bits_left s /\
    8 * c_ffreads c <= bits_left s + 16 /\
    c_pliters c = sumN (c_allocs c) /\
    (r <> XErr -> sumN (c_allocs c) = payload_bytes (xres_msgs r)).
Proof.
  induction f as [|f IH]; intros s Hw He0 Hf; [lia|].
  assert (Hok : rok s) by (right; exact Hw).
  cbn [extract_loop_go].
  destruct (read_ff_t_total u64 (S (length (rdata s))) s 0 0 Hok ltac:(lia) (read_ff_fuel s s Hok eq_refl))
    as (ty & s1 & k1 & -> & Hok1 & Hd1 & Hk1 & _ & Hc1 & Hb1).
  specialize (Hc1 He0). replace (k1 - 0) with k1 in * by lia.
  destruct (read_ff_t_total u32 (S (length (rdata s))) s1 0 0 Hok1 ltac:(lia) (read_ff_fuel s s1 Hok1 Hd1))
    as (sz & s2 & k2 & -> & Hok2 & Hd2 & Hk2 & He2 & Hc2 & Hb2).
  replace (k2 - 0) with k2 in * by lia.
  destruct (read_bytes_go s2 sz) as [[[pl s3] al] it] eqn:Hgo.
  destruct (read_bytes_go_spec _ _ _ _ _ _ Hok2 Hgo) as (_ & _ & G3 & G4 & G5 & G6 & G7 & G8).
  (* reads of the two 0xFF runs of this iteration *)
  assert (Hff : 8 * (k1 + k2) <= bits_left s + 16).
  { destruct (rerr s1) eqn:He1.
    - destruct (He2 eq_refl) as (_ & ->). lia.
    - destruct (Hb1 eq_refl) as (_ & Hb1'). specialize (Hc2 eq_refl). lia. }
  destruct (rerr s3) eqn:He3.
  - (* return nil, err *)
    eexists _, _. split; [reflexivity|]. split; [discriminate|]. cbn [xres_msgs c_ffreads c_pliters c_allocs sumN].
    change (lenN (@nil (N * list N))) with 0. change (payload_bytes []) with 0.
    split; [lia|]. split; [lia|]. split; [lia|]. intros H; congruence.
  - destruct (G8 eq_refl) as (Hes2 & Hlen & Hb3). specialize (G4 Hes2). subst al it.
    destruct (Hb2 Hes2) as (Hes1 & Hb2'). destruct (Hb1 Hes1) as (_ & Hb1').
    assert (Hone : 16 * lenN [(ty, pl)] + 8 * payload_bytes [(ty, pl)] <= bits_left s).
    { change (lenN [(ty, pl)]) with 1. rewrite payload_bytes_cons. change (payload_bytes []) with 0. lia. }
    destruct (more_rbsp_data s3) as [[[|]|] s4] eqn:Hm.
    (* the last message: XOk, or XMissing without the trailing bits *)
    2,3: eexists _, _; (split; [reflexivity|]); (split; [discriminate|]); cbn [xres_msgs c_ffreads c_pliters c_allocs sumN];
      (split; [exact Hone|]); (split; [lia|]); (split; [lia|]); intros _; rewrite payload_bytes_cons; change (payload_bytes []) with 0; lia.
    apply more_rbsp_state in Hm. subst s4.
    destruct (rok_bits s3 G6 He3) as (Hw3 & _).
    destruct (IH s3 Hw3 He3) as (r & c & -> & Hnf & Hsz & Hffr & Hit & Hal); [lia|].
    eexists _, _. split; [reflexivity|]. split; [destruct r; cbn; congruence|].
    unfold cost_add. cbn [c_ffreads c_pliters c_allocs sumN].
    destruct (xres_eq_err r) as [->|Hne].
    + cbn [xcons xres_msgs]. change (lenN (@nil (N * list N))) with 0. change (payload_bytes []) with 0.
      split; [lia|]. split; [lia|]. split; [lia|]. intros H; congruence.
    + rewrite (xres_msgs_xcons _ r Hne Hnf). rewrite lenN_cons, payload_bytes_cons.
      split; [lia|]. split; [lia|]. split; [lia|]. intros _. rewrite (Hal Hne). lia.
Qed.

(* ------------------------------------------------------------------ the whole extractor *)
Lemma extract_sei_data_total data :
  exists r c, extract_sei_data_go data = (r, c) /\ extract_sei_data data = r /\ r <> XFuel /\
    2 * lenN (xres_msgs r) + payload_bytes (xres_msgs r) <= lenN data /\
    c_ffreads c <= lenN data + 2 /\
    c_pliters c = sumN (c_allocs c) /\
    (r <> XErr -> sumN (c_allocs c) = payload_bytes (xres_msgs r)).
Proof.
  unfold extract_sei_data_go, extract_sei_data.
  assert (Hb : bits_left (rinit data) = 8 * lenN data) by (unfold bits_left, rinit; cbn [rdata rpos rn]; lia).
  destruct (extract_loop_go_total (S (length data)) (rinit data) (rwf_init data) eq_refl)
    as (r & c & Hrun & Hnf & Hsz & Hff & Hit & Hal).
  { rewrite Hb. unfold lenN. lia. }
  exists r, c. split; [exact Hrun|]. split.
  { rewrite <- (extract_loop_go_fst _ _ (rok_init data)), Hrun. reflexivity. }
  split; [exact Hnf|]. rewrite Hb in *. split; [lia|]. split; [lia|]. split; [exact Hit|exact Hal].
Qed.

(* ------------------------------------------------------------------ requested sizes (byte inputs) *)
(* reachable reader state over byte data: sticky error, or accumulator within its bit count *)
Definition vinv (s : rstate) : Prop := rerr s = true \/ RGood s.

Lemma read8_lt s : vinv s -> fst (read s 8) < 256 /\ vinv (snd (read s 8)).
Proof.
  intros [He|[HI Hn8]].
  - rewrite (read_after_error s 8 He). cbn [fst snd]. split; [lia|left; exact He].
  - destruct (N.ltb_spec (N.of_nat (length (rbits s))) 8) as [Hlt|Hge].
    + destruct (read_fail s 8 HI Hn8 ltac:(lia) Hlt) as (-> & He). split; [lia|left; exact He].
    + pose proof (read_spec s 8 HI Hn8 ltac:(lia) Hge) as H. destruct (read s 8) as [v s'].
      destruct H as (-> & _ & HI' & Hn' & _). cbn [fst snd]. split; [|right; split; assumption].
      eapply N.lt_le_trans; [apply val_of_lt|]. change 256 with (2 ^ 8). apply N.pow_le_mono_r; [lia|].
      rewrite firstn_length. lia.
Qed.

(* the run value is at most 255 per byte read, whatever the wrap of the accumulator's type *)
Lemma read_ff_t_value wrap : (forall x, wrap x <= x) -> forall fuel s acc k0 v s1 k,
  vinv s -> read_ff_t fuel wrap s acc k0 = Some (v, s1, k) ->
  v + 255 * k0 <= acc + 255 * k /\ vinv s1.
Proof.
  intros Hw. induction fuel as [|f IH]; intros s acc k0 v s1 k Hv; cbn [read_ff_t]; [discriminate|].
  destruct (read8_lt s Hv) as (Hb & Hv1). destruct (read s 8) as [b s']. cbn [fst snd] in *.
  pose proof (Hw (acc + b)) as Hu.
  destruct (b =? 255).
  - intros H. destruct (IH _ _ _ _ _ _ Hv1 H) as (H1 & H2). split; [lia|exact H2].
  - intros H. injection H as <- <- <-. split; [lia|exact Hv1].
Qed.

Lemma u32_le x : u32 x <= x. Proof. apply N.mod_le. discriminate. Qed.
Lemma u64_le x : u64 x <= x. Proof. apply N.mod_le. discriminate. Qed.

Lemma read_bytes_vinv : forall k s, vinv s -> vinv (snd (read_bytes k s)).
Proof.
  induction k as [|k IH]; intros s Hv; cbn [read_bytes]; [exact Hv|].
  destruct (read8_lt s Hv) as (_ & Hv1). destruct (read s 8) as [b s1]. cbn [snd] in *.
  specialize (IH s1 Hv1). destruct (read_bytes k s1) as [l s2]. exact IH.
Qed.

(* every request is at most 255 per size byte read *)
Lemma extract_loop_go_allocs : forall f s, vinv s ->
  sumN (c_allocs (snd (extract_loop_go f s))) <= 255 * c_ffreads (snd (extract_loop_go f s)).
Proof.
  induction f as [|f IH]; intros s Hv; cbn [extract_loop_go]; [cbn; lia|].
  destruct (read_ff_t (S (length (rdata s))) u64 s 0 0) as [[[ty s1] k1]|] eqn:H1; [|cbn; lia].
  destruct (read_ff_t_value u64 u64_le _ _ _ _ _ _ _ Hv H1) as (_ & Hv1).
  destruct (read_ff_t (S (length (rdata s))) u32 s1 0 0) as [[[sz s2] k2]|] eqn:H2; [|cbn; lia].
  destruct (read_ff_t_value u32 u32_le _ _ _ _ _ _ _ Hv1 H2) as (Hsz & Hv2).
  unfold read_bytes_go.
  assert (Hgo : exists pl s3 al, (if rerr s2 then ([], s2, 0, 0)
                 else let '(l, s') := read_bytes (N.to_nat sz) s2 in ((if rerr s' then [] else l), s', sz, sz))
                = (pl, s3, al, al) /\ al <= sz /\ vinv s3).
  { destruct (rerr s2).
    - eexists _, _, _. split; [reflexivity|]. split; [lia|exact Hv2].
    - pose proof (read_bytes_vinv (N.to_nat sz) s2 Hv2) as Hv3.
      destruct (read_bytes (N.to_nat sz) s2) as [l s']. eexists _, _, _. split; [reflexivity|]. split; [lia|exact Hv3]. }
  destruct Hgo as (pl & s3 & al & -> & Hal & Hv3).
  destruct (rerr s3); [cbn [snd c_allocs c_ffreads sumN]; lia|].
  destruct (more_rbsp_data s3) as [[[|]|] s4] eqn:Hm; try (cbn [snd c_allocs c_ffreads sumN]; lia).
  apply more_rbsp_state in Hm. subst s4. specialize (IH s3 Hv3).
  destruct (extract_loop_go f s3) as [r c]. cbn [snd] in *. unfold cost_add. cbn [c_allocs c_ffreads sumN]. lia.
Qed.

Lemma bytes_ok_lt256 l : bytes_ok l = true -> Forall lt256 l.
Proof.
  induction l as [|b t IH]; [constructor|]. rewrite bytes_ok_cons. intros H.
  apply andb_true_iff in H. destruct H as (H1 & H2). constructor; [|apply IH; exact H2].
  unfold byte_ok in H1. unfold lt256. lia.
Qed.

(* allocation and ReadBytes iterations of the whole run: linear in the input, also on the failing path *)
Lemma extract_sei_data_alloc_bound data :
  bytes_ok data = true ->
  sumN (c_allocs (snd (extract_sei_data_go data))) <= 255 * (lenN data + 2) /\
  c_pliters (snd (extract_sei_data_go data)) <= 255 * (lenN data + 2).
Proof.
  intros Hb.
  destruct (extract_sei_data_total data) as (r & c & Hrun & _ & _ & _ & Hff & Hit & _).
  assert (Hv : vinv (rinit data)).
  { right. split; [apply RInv_init, bytes_ok_lt256, Hb|cbn; lia]. }
  pose proof (extract_loop_go_allocs (S (length data)) (rinit data) Hv) as Ha.
  unfold extract_sei_data_go in *. rewrite Hrun in *. cbn [snd] in *. rewrite Hit. split; nia.
Qed.
