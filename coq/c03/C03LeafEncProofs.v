(* C03LeafEncProofs.v — the encoder pairs that are written twice (mdat, stsd, visual sample entry): Encode(w) and EncodeSW(sw)
   produce the same bytes or both fail, given children that do; so these boxes are agreeing leaves / nodes of C03_box_encode_agree. *)
From V.lib Require Import Base.
From V.c04 Require Import C04Model.
From V.c03 Require Import C03Model C03Proofs C03LeafModel.
Open Scope N_scope.

(* an encoder whose two results are the same value is an agreeing leaf of the container / file encode theorems *)
Lemma bytes_eqb_refl : forall a,
  (fix eq (x y : list N) : bool :=
     match x, y with [], [] => true | p :: x', q :: y' => (p =? q) && eq x' y' | _, _ => false end) a a = true.
Proof. induction a as [|x t IH]; [reflexivity|]. rewrite N.eqb_refl. exact IH. Qed.

Lemma agree_leaf_same (r : res (list N)) : r <> Panic -> r <> OutOfFuel -> agree (ELeaf r r) = true.
Proof.
  intros H1 H2. destruct r as [l| | |]; try contradiction; [|reflexivity]. cbn [agree]. apply bytes_eqb_refl.
Qed.

Lemma mdat_enc_agree m : mdat_enc_w m = mdat_enc_sw m /\ agree (ELeaf (mdat_enc_w m) (mdat_enc_sw m)) = true.
Proof.
  split; [reflexivity|]. change (mdat_enc_sw m) with (mdat_enc_w m). apply agree_leaf_same; unfold mdat_enc_w, enc_header_size_w;
    destruct (negb (md_large m || (max_normal_payload <? lenN (md_data m))) && (4294967296 <=? mdatv_size m));
    try discriminate; destruct (negb (md_large m || (max_normal_payload <? lenN (md_data m)))); discriminate.
Qed.

(* encoders of agreeing boxes return bytes or an error *)
Lemma enc_list_np_in : forall l, Forall (fun b => agree b = true -> enc_w b <> Panic /\ enc_w b <> OutOfFuel) l ->
  agree_list l = true -> enc_list enc_w l <> Panic /\ enc_list enc_w l <> OutOfFuel.
Proof.
  induction 1 as [|k r Hk Hr IH]; intros H; [split; discriminate|]. cbn [agree_list forallb] in H.
  apply andb_prop in H. destruct H as [H1 H2]. destruct (Hk H1) as [P1 P2]. destruct (IH H2) as [Q1 Q2]. cbn [enc_list].
  destruct (enc_w k); try contradiction; cbn [rbind]; [|split; discriminate].
  destruct (enc_list enc_w r); try contradiction; cbn [rbind]; split; discriminate.
Qed.

Lemma enc_np : forall b, agree b = true -> enc_w b <> Panic /\ enc_w b <> OutOfFuel.
Proof.
  induction b as [w sw|nm size kids IH] using ebox_ind2; intros H.
  - cbn [enc_w]. cbn [agree] in H. destruct w, sw; try discriminate; split; discriminate.
  - rewrite agree_cont in H. rewrite enc_w_cont. destruct (enc_list_np_in kids IH H) as [K1 K2].
    unfold enc_header_w. destruct (4294967296 <=? size); cbn [rbind]; [split; discriminate|].
    destruct (enc_list enc_w kids); try contradiction; cbn [rbind]; split; discriminate.
Qed.

Lemma enc_list_np : forall kids, agree_list kids = true -> enc_list enc_w kids <> Panic /\ enc_list enc_w kids <> OutOfFuel.
Proof. intros l. apply enc_list_np_in, Forall_forall. intros b _. apply enc_np. Qed.

(* StsdBox, VisualSampleEntryBox and the encoders of C03PfxModel.v: the header, then bytes k assembles from it and from what the
   children write *)
Lemma hdr_kids_enc_agree nm size kids (k : list N -> list N -> list N) : agree_list kids = true ->
  let w := do hd <- enc_header_w nm size; do rest <- enc_list enc_w kids; Ok (k hd rest) in
  let sw := do hd <- enc_header_sw nm size; do rest <- enc_list enc_sw kids; Ok (k hd rest) in
  w = sw /\ agree (ELeaf w sw) = true.
Proof.
  intros H w sw. assert (E : w = sw) by (unfold w, sw; rewrite (enc_list_agree _ H); reflexivity).
  split; [exact E|]. rewrite <- E. destruct (enc_list_np kids H) as [K1 K2].
  apply agree_leaf_same; unfold w, enc_header_w; destruct (4294967296 <=? size); cbn [rbind]; try discriminate;
    destruct (enc_list enc_w kids); try contradiction; cbn [rbind]; discriminate.
Qed.
