(* C03SgpdProofs.v — the sgpd pair: DecodeSgpdSR (C03SgpdModel.sgpd_prog: header fields, the entry loop, the entry decoders behind the
   table sgeDecoders except alst) is a LOCAL extended reader program, for every entry count; hence the delegation theorem applies. *)
From V.lib Require Import Base.
From V.c04 Require Import C04Model.
From V.c03 Require Import C03Model C03LeafModel C03CanonProofs C03DelegateProofs C03DelegateExtProofs C03SgpdModel.
Open Scope N_scope.

Lemma sg_ret_local {A} (e : sgentry) (k : sgentry -> xprog A) : (forall e', local_xprog (k e')) -> local_xprog (sg_ret e k).
Proof.
  intros Hk. unfold sg_ret. cbn [local_xprog local_xop]. split; [reflexivity|]. intros er. destruct (sg_vBool er); [exact I|apply Hk].
Qed.

Lemma sg_entry_local {A} gt len (k : sgentry -> xprog A) : (forall e, local_xprog (k e)) -> local_xprog (sg_entry_prog gt len k).
Proof.
  intros Hk. unfold sg_entry_prog.
  destruct (sg_name_eqb gt name_seig).
  { unfold seig_prog. cbn [local_xprog local_xop].
    split; [reflexivity|]. intros _. split; [reflexivity|]. intros b2. split; [reflexivity|]. intros ip.
    split; [reflexivity|]. intros iv. split; [reflexivity|]. intros kid.
    destruct ((vN ip =? 1) && (vN iv =? 0))%bool.
    - cbn [local_xprog local_xop]. split; [reflexivity|]. intros n. split; [reflexivity|]. intros civ.
      destruct (negb _); [exact I|apply sg_ret_local; exact Hk].
    - destruct (negb _); [exact I|apply sg_ret_local; exact Hk]. }
  destruct (sg_name_eqb gt name_roll).
  { unfold roll_prog. cbn [local_xprog local_xop]. split; [reflexivity|]. intros d. apply sg_ret_local; exact Hk. }
  destruct (sg_name_eqb gt name_rap).
  { unfold rap_prog. cbn [local_xprog local_xop]. split; [reflexivity|]. intros d. apply sg_ret_local; exact Hk. }
  destruct (sg_name_eqb gt name_alst); [exact I|].
  unfold unknown_prog. cbn [local_xprog local_xop]. split; [reflexivity|]. intros d. apply sg_ret_local; exact Hk.
Qed.

Lemma iter_pos_local {S A} (body : S -> (S -> xprog A) -> xprog A) :
  (forall st k, (forall st', local_xprog (k st')) -> local_xprog (body st k)) ->
  forall p st k, (forall st', local_xprog (k st')) -> local_xprog (iter_pos p body st k).
Proof.
  intros Hb. induction p as [q IH|q IH|]; intros st k Hk; cbn [iter_pos].
  - apply Hb. intros st'. apply IH. intros st''. apply IH. exact Hk.
  - apply IH. intros st'. apply IH. exact Hk.
  - apply Hb. exact Hk.
Qed.

Lemma iter_N_local {S A} (body : S -> (S -> xprog A) -> xprog A) :
  (forall st k, (forall st', local_xprog (k st')) -> local_xprog (body st k)) ->
  forall n st k, (forall st', local_xprog (k st')) -> local_xprog (iter_N n body st k).
Proof. intros Hb [|p] st k Hk; cbn [iter_N]; [apply Hk|apply iter_pos_local; assumption]. Qed.

(* iter_N n is n-fold iteration: with a body that only counts, the continuation is reached with the count increased by n *)
Lemma iter_pos_counts {A} : forall p (st : N) (k : N -> xprog A), iter_pos p (fun s k' => k' (s + 1)) st k = k (st + Npos p).
Proof.
  induction p as [q IH|q IH|]; intros st k; cbn [iter_pos].
  - rewrite IH, IH. f_equal. lia.
  - rewrite IH, IH. f_equal. lia.
  - reflexivity.
Qed.
Lemma iter_N_counts {A} : forall n (st : N) (k : N -> xprog A), iter_N n (fun s k' => k' (s + 1)) st k = k (st + n).
Proof. intros [|p] st k; cbn [iter_N]; [f_equal; lia|apply iter_pos_counts]. Qed.

Lemma sgpd_body_local version deflen gt st k : (forall st', local_xprog (k st')) -> local_xprog (sgpd_body version deflen gt st k).
Proof.
  intros Hk. unfold sgpd_body.
  assert (Hb : forall dl lens', local_xprog
      (if dl =? 0 then XFail
       else sg_entry_prog gt dl (fun e => if negb (sg_entry_size e =? dl) then XFail else k (lens', e :: snd st)))).
  { intros dl lens'. destruct (dl =? 0); [exact I|]. apply sg_entry_local. intros e. destruct (negb _); [exact I|]. apply Hk. }
  destruct ((1 <=? version) && (deflen =? 0))%bool.
  - cbn [local_xprog local_xop]. split; [reflexivity|]. intros v. apply Hb.
  - apply Hb.
Qed.

Lemma sgpd_prog_local : local_xprog sgpd_prog.
Proof.
  unfold sgpd_prog. cbn [local_xprog local_xop]. split; [reflexivity|]. intros vf. split; [reflexivity|]. intros gt.
  assert (Hr : forall deflen defidx, local_xprog
     (XOp RU32 (fun cnt => iter_N (vN cnt) (sgpd_body (vN vf / 16777216) deflen (sg_vB gt)) ([], [])
        (fun st => XRet (mkSgpd (vN vf / 16777216) (N.land (vN vf) flags_mask) (sg_vB gt) deflen defidx (rev (fst st)) (rev (snd st))))))).
  { intros deflen defidx. cbn [local_xprog local_xop]. split; [reflexivity|]. intros cnt. apply iter_N_local.
    - intros st k Hk. apply sgpd_body_local. exact Hk.
    - intros st'. exact I. }
  destruct (1 <=? vN vf / 16777216).
  - cbn [local_xprog local_xop]. split; [reflexivity|]. intros dl. destruct (2 <=? vN vf / 16777216).
    + cbn [local_xprog local_xop]. split; [reflexivity|]. intros di. apply Hr.
    + apply Hr.
  - apply Hr.
Qed.

(* The pair.  Reader path: readBoxBody, then DecodeSgpdSR on a private reader over the body, returning what it returns; SR path:
   DecodeSgpdSR on the caller's reader, the body sitting anywhere in the caller's buffer.  Whenever the private run accepts (value a, no
   accumulated error), the SR path accepts with the same value, stops exactly where the private run stopped, and leaves no error. *)
Theorem sgpd_pair_agree : forall body a s',
  run_xprog 0 sgpd_prog (rnew body) = Ok (a, s') -> rerr s' = false ->
  forall buf q, window buf q body -> (zlen buf < two62)%Z ->
    xprog_body_r false true sgpd_prog body = Ok a /\
    xprog_sr false true sgpd_prog (mkR buf q false) = Ok (a, mkR buf (q + rpos s')%Z false).
Proof.
  intros body a s' E He buf q W Hs.
  assert (Hb : (zlen body < two62)%Z) by (destruct (window_range _ _ _ W); pose proof (zlen_nonneg body); lia).
  exact (proj2 (xprog_pair_agree sgpdv sgpd_prog false true body a s' sgpd_prog_local Hb E He buf q W Hs) eq_refl).
Qed.

(* the conclusion in terms of the reader-path decoder alone: what the reader path accepts, the SR path accepts *)
Theorem sgpd_reader_accepts_sr_accepts : forall body a,
  xprog_body_r false true sgpd_prog body = Ok a ->
  forall buf q, window buf q body -> (zlen buf < two62)%Z ->
    exists p', xprog_sr false true sgpd_prog (mkR buf q false) = Ok (a, mkR buf p' false).
Proof.
  intros body a E buf q W Hs. unfold xprog_body_r in E.
  destruct (run_xprog 0 sgpd_prog (rnew body)) as [[a' s']| | |] eqn:Er; cbn [rbind] in E; try discriminate.
  destruct (rerr s') eqn:He; cbn [andb] in E; [discriminate|]. inversion E; subst a'.
  exists (q + rpos s')%Z. exact (proj2 (sgpd_pair_agree body a s' Er He buf q W Hs)).
Qed.

(* non-vacuity: a version-1 seig sgpd (DefaultLength 20, one entry) and a version-1 roll sgpd with per-entry lengths (two entries) *)
Definition ex_sgpd_seig : list N :=
  [1;0;0;0; 115;101;105;103; 0;0;0;20; 0;0;0;1; 0;0;1;8; 1;2;3;4;5;6;7;8;9;10;11;12;13;14;15;16].
Definition ex_sgpd_roll : list N :=
  [1;0;0;0; 114;111;108;108; 0;0;0;0; 0;0;0;2; 0;0;0;2; 255;255; 0;0;0;2; 0;5].
Lemma ex_sgpd_seig_runs : exists a s', run_xprog 0 sgpd_prog (rnew ex_sgpd_seig) = Ok (a, s') /\ rerr s' = false /\
  rpos s' = 36%Z /\ length (sg_entries a) = 1%nat /\ sgpd_size a = 8 + lenN ex_sgpd_seig.
Proof. eexists. eexists. split; [vm_compute; reflexivity|]. vm_compute. repeat split; reflexivity. Qed.
Lemma ex_sgpd_roll_runs : exists a s', run_xprog 0 sgpd_prog (rnew ex_sgpd_roll) = Ok (a, s') /\ rerr s' = false /\
  sg_entries a = [SgRoll (-1); SgRoll 5] /\ sg_lens a = [2; 2] /\ sgpd_size a = 8 + lenN ex_sgpd_roll.
Proof. eexists. eexists. split; [vm_compute; reflexivity|]. vm_compute. repeat split; reflexivity. Qed.
