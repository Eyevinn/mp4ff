(* C03XEntryProofs.v — evte and stpp (C03PfxModel.xentry_sr / xentry_r): a prefix that is a LOCAL extended reader program (C03_delegate_sound_ext),
   then child boxes while bytes of the payload remain.  On every canonical payload - bytes fx on which the private run of the prefix
   ends without error, exactly behind fx, then canonical children - both decoders accept with the same value. *)
From V.lib Require Import Base.
From V.c04 Require Import C04Model C04ReaderProofs C04ContainerProofs.
From V.c03 Require Import C03Model C03Spec C03Proofs C03CanonProofs C03LeafModel C03LeafProofs C03LeafBoxProofs C03StsdProofs C03VseProofs C03DelegateProofs C03DelegateExtProofs C03PfxModel C03PfxProofs.
Open Scope Z_scope.

Section XE.
Variable ld : leafdec.
Hypothesis LD : leaf_ok ld.

Lemma rel_kids_canon : forall kids, Forall (cwf ld) kids -> (lenN (cencs kids) < 4294967296)%N ->
  forall fuel plen initPos pos acc buf q cst,
    window buf q (cencs kids) -> zlen buf < two63 -> (pos + lenN (cencs kids) < 18446744073709551616)%N ->
    plen - (q - initPos) = zlen (cencs kids) -> zlen buf - q + 1 < Z.of_nat fuel ->
    exists cst', rel_kids ld fuel plen initPos pos acc (sr_at buf q cst)
                 = (Ok (rev acc ++ map erase kids), sr_at buf (q + zlen (cencs kids)) cst').
Proof.
  induction kids as [|k rest IH]; intros HW Hl fuel plen initPos pos acc buf q cst W Hs Hp He Hf; destruct (window_range _ _ _ W);
    (destruct fuel as [|f]; [unfold zlen in *; lia|]); cbn [rel_kids cencs map sr_at sr rpos].
  - change (zlen (cencs [])) with 0 in He. replace (plen - (q - initPos) <=? 0) with true by lia.
    exists cst. change (zlen (@nil N)) with 0. rewrite Z.add_0_r, app_nil_r. reflexivity.
  - apply Forall_cons_iff in HW as [HWk HWr]. pose proof (cenc_len_ge8 ld k HWk) as Hk8.
    apply fits_cons in Hl as Hl'. destruct Hl' as [Hfk Hlr].
    cbn [cencs] in *. rewrite lenN_app, zlen_app in *. apply window_app in W as [Wk Wr].
    pose proof (zlen_nonneg (cencs rest)). pose proof (zlen_lenN (cenc k)) as Hzk.
    replace (plen - (q - initPos) <=? 0) with false by lia.
    destruct (dec_box_sr_canon ld LD k f pos buf q cst HWk Hfk Wk Hs ltac:(lia) ltac:(lia)) as [c1 E].
    rewrite E, (tsize_erase ld k HWk Hfk), addu64_small by lia.
    destruct (IH HWr Hlr f plen initPos (pos + lenN (cenc k))%N (erase k :: acc) buf (q + zlen (cenc k)) c1 Wr Hs) as [c' E'];
      try lia.
    rewrite E'. exists c'. cbn [rev]. rewrite <- app_assoc, Z.add_assoc. reflexivity.
Qed.

Context {A : Type}.
Variable p : Z -> xprog A.
Hypothesis Hloc : forall plen, local_xprog (p plen).
Variables (nm fx : list N) (kids : list ctree) (a : A).
Hypothesis HW : Forall (cwf ld) kids.
Let p0 : list N := fx ++ cencs kids.
Hypothesis Hfit : (lenN p0 < 4294967288)%N.
Let h : hdr := mkH nm (8 + lenN p0) 8.
(* the prefix, run on the private reader over the payload, ends without accumulated error exactly behind fx *)
Hypothesis F0 : run_xprog 0 (p (Z.of_N (lenN p0))) (rnew p0) = Ok (a, mkR p0 (zlen fx) false).

(* the SliceReader decoder before the payload, wherever it stands (on the private reader: at 0 of p0 itself) *)
Lemma xentry_sr_window buf q cst fuel : window buf q p0 -> zlen buf < two62 -> zlen buf - q + 1 < Z.of_nat fuel ->
  fst (xentry_sr p ld fuel h 0 (sr_at buf q cst)) = Ok (a, map erase kids).
Proof.
  intros W Hs Hf. pose proof (zlen_nonneg fx) as Hfx0. destruct (window_range _ _ _ W).
  assert (HL : lenN p0 = (lenN fx + lenN (cencs kids))%N) by (unfold p0; apply lenN_app).
  assert (Hs63 : zlen buf < two63) by (unfold two62, two63 in *; lia).
  unfold xentry_sr. cbn [sr_at sr scost rpos]. unfold h. rewrite payload_len_eq by lia.
  assert (R : run_xprog q (p (Z.of_N (lenN p0))) (mkR buf q false) = Ok (a, mkR buf (q + zlen fx) false)).
  { apply (delegate_sound_x A _ p0 a (mkR p0 (zlen fx) false) (Hloc _)); [pose proof (zlen_nonneg p0); lia|exact F0|reflexivity|exact W|exact Hs]. }
  rewrite R. cbn [rerr rpos hlen].
  replace (addu64 0 (u64z (Z.of_N 8 + (q + zlen fx) - q))) with (8 + lenN fx)%N.
  2:{ replace (Z.of_N 8 + (q + zlen fx) - q) with (Z.of_N (8 + lenN fx)) by (rewrite zlen_lenN; lia).
      unfold u64z, two64. rewrite Z.mod_small, N2Z.id by lia. rewrite addu64_small; lia. }
  apply window_app in W as [_ Wk].
  destruct (rel_kids_canon kids HW ltac:(lia) fuel (Z.of_N (lenN p0)) q (8 + lenN fx)%N [] buf (q + zlen fx) cst Wk Hs63) as [c' E'];
    rewrite ?zlen_lenN in *; try lia.
  unfold sr_at in E'. rewrite E'. reflexivity.
Qed.

(* the pair before the payload, wherever it stands; the reader path reads the body, then runs the same decoder on a private reader *)
Theorem xentry_pair_window : forall buf q cst cst2 fuel,
  window buf q p0 -> zlen buf < two62 -> zlen buf - q + 1 < Z.of_nat fuel ->
  fst (xentry_sr p ld fuel h 0 (sr_at buf q cst)) = Ok (a, map erase kids) /\
  fst (xentry_r p ld fuel h 0 (ir_at buf q cst2)) = Ok (a, map erase kids) /\
  sum_sizes (map erase kids) (8 + lenN fx) = (8 + lenN p0)%N.
Proof.
  intros buf q cst cst2 fuel W Hs Hf. destruct (window_range _ _ _ W). pose proof (zlen_nonneg p0).
  split; [apply xentry_sr_window; assumption|]. split.
  - unfold xentry_r. destruct (read_box_body_window nm 8 _ _ _ cst2 W ltac:(lia)) as [c2 HB]. fold h in HB. rewrite HB. cbn [fst].
    apply (xentry_sr_window p0 0 _ fuel (window_all p0)); lia.
  - unfold p0 in *. rewrite lenN_app in *. rewrite (sum_sizes_erase ld) by (exact HW || lia). lia.
Qed.
End XE.

(* ---------------------------------------------------------------- the prefixes of evte and stpp are local programs *)
Lemma clampz_int z : is_int (clampz z) = true /\ clampz z < 4611686018427387904.
Proof.
  unfold clampz, is_int, two63.
  destruct ((-2305843009213693952 <? z) && (z <? 2305843009213693952))%bool eqn:E; [|split; [reflexivity|lia]].
  apply andb_prop in E. destruct E as [E1 E2]. split; [|lia].
  apply andb_true_intro. split; lia.
Qed.

Lemma evte_prog_local plen : local_xprog (evte_prog plen).
Proof. split; [reflexivity|]. intros _. split; [reflexivity|]. intros v. exact I. Qed.

Lemma stpp_prog_local plen : local_xprog (stpp_prog plen).
Proof.
  assert (Z : forall z, local_xop (RZStr (clampz z)) = true).
  { intros z. cbn [local_xop]. destruct (clampz_int z) as [H1 H2]. rewrite H1. cbn [andb]. lia. }
  split; [reflexivity|]. intros _. split; [reflexivity|]. intros dri. split; [apply Z|]. intros ns z1.
  destruct ((0 <=? z1) && (z1 <? 4611686018427387904))%bool; [|exact I].
  destruct (0 <? clampz (plen - z1)); [|exact I].
  split; [apply Z|]. intros sl z2.
  destruct ((0 <=? z2) && (z2 <? 4611686018427387904))%bool; [|exact I].
  destruct (0 <? clampz (plen - z2)); [|exact I].
  split; [apply Z|]. intros am. exact I.
Qed.

(* ---------------------------------------------------------------- evte: ANY 8 fixed bytes (stpp, whose fixed part is data dependent -
   three zero-terminated strings, the last two optional -, is xentry_pair_window itself) *)
Lemma evte_prog_run plen p0 : 8 <= zlen p0 -> zlen p0 < two63 ->
  exists dri, run_xprog 0 (evte_prog plen) (rnew p0) = Ok (dri, mkR p0 8 false).
Proof.
  intros Hl Hb. unfold evte_prog, rnew. cbn [run_xprog rstep rbind]. change (mkR p0 0 false) with (mkR p0 (0 + 0) false).
  rewrite (skip_bytes_at 6 _ _ _ _ (window_all p0)), (read_fixed_at 2 _ _ _ _ (window_all p0)) by (assumption || lia).
  cbn [rbind fst snd run_xprog]. eexists. reflexivity.
Qed.

Theorem evte_pair_window : forall ld, leaf_ok ld -> forall nm fx kids,
  length fx = 8%nat -> Forall (cwf ld) kids -> (lenN (fx ++ cencs kids) < 4294967288)%N ->
  forall buf q cst cst2 fuel, window buf q (fx ++ cencs kids) -> zlen buf < two62 -> zlen buf - q + 1 < Z.of_nat fuel ->
  let h := mkH nm (8 + lenN (fx ++ cencs kids)) 8 in
  exists dri,
    fst (evte_sr ld fuel h 0 (sr_at buf q cst)) = Ok (dri, map erase kids) /\
    fst (evte_r ld fuel h 0 (ir_at buf q cst2)) = Ok (dri, map erase kids) /\
    evte_size (dri, map erase kids) = (8 + lenN (fx ++ cencs kids))%N.
Proof.
  intros ld LD nm fx kids Hfx HW Hfit buf q cst cst2 fuel W Hs Hf h.
  assert (Hz8 : zlen fx = 8) by (unfold zlen; rewrite Hfx; reflexivity).
  assert (Hl8 : lenN fx = 8%N) by (unfold lenN; rewrite Hfx; reflexivity).
  destruct (window_range _ _ _ W). rewrite zlen_app in *. pose proof (zlen_nonneg (cencs kids)).
  destruct (evte_prog_run (Z.of_N (lenN (fx ++ cencs kids))) (fx ++ cencs kids)) as [dri F0];
    [rewrite zlen_app; lia|rewrite zlen_app; unfold two62, two63 in *; lia|].
  exists dri. rewrite <- Hz8 in F0.
  destruct (xentry_pair_window ld LD evte_prog evte_prog_local nm fx kids dri HW Hfit F0 buf q cst cst2 fuel W Hs Hf) as [E1 [E2 E3]].
  split; [exact E1|]. split; [exact E2|]. unfold evte_size. cbn [snd]. rewrite Hl8 in E3. exact E3.
Qed.
