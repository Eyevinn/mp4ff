(* C03SencPassProofs.v — the second senc pass of the two file loops: the two transcriptions agree, the pass visits EVERY traf
   (each on its own), a pass that stops at a clear traf on one path only is a different function. *)
From V.lib Require Import Base.
From V.c04 Require Import C04AsmModel C04AllocModel C04XrefModel.
From V.c03 Require Import C03Model C03Proofs C03SencPassModel.
Open Scope N_scope.

(* the pass and the loop around it came out as the same text on both paths *)
Lemma moof_passes_agree fm s : forall trafs, moof_pass_sr fm s trafs = moof_pass_r fm s trafs.
Proof. reflexivity. Qed.

Lemma xloops_agree : forall boxes o f fm last pos acc,
  decode_file_xsr_loop o f fm last pos boxes acc = decode_file_xr_loop o f fm last pos boxes acc.
Proof. reflexivity. Qed.

Lemma xloop_tfra : forall boxes o f fm last pos acc f' l,
  decode_file_xr_loop o f fm last pos boxes acc = Ok (f', l) -> f_tfra f' = f_tfra f.
Proof.
  induction boxes as [|b rest IH]; intros o f fm last pos acc f' l H.
  - inversion H; reflexivity.
  - cbn [decode_file_xr_loop] in H.
    match type of H with rbind ?pre _ = _ => destruct pre; cbn [rbind] in H; try discriminate end.
    destruct (add_child true o f (xb_shape b) (xb_size b) pos) as [f1| | |] eqn:E; cbn [rbind] in H; try discriminate.
    apply IH in H. rewrite H. eapply add_child_tfra. exact E.
Qed.

(* the two file loops, with the senc pass transcribed from each text: the same File and the same state of every traf's senc *)
Theorem file_agree_senc : forall o boxes, o_ism o = false -> o_lazy o = false ->
  decode_file_xsr o boxes = decode_file_xr o boxes.
Proof.
  intros o boxes Hi Hl. unfold decode_file_xsr, decode_file_xr. rewrite Hi, Hl. cbn [rbind].
  rewrite xloops_agree. change (mkF false None None None [] None false [] [] false) with f0.
  destruct (decode_file_xr_loop o f0 None BNone 0 boxes []) as [[f l]| | |] eqn:E; cbn [rbind fst snd]; try reflexivity.
  apply xloop_tfra in E. rewrite clear_tfra_id; [reflexivity|exact E].
Qed.

(* ---------------------------------------------------------------- the pass against its specification *)
Lemma traf_body_spec fm s tr : traf_body_r fm s tr = traf_spec fm s tr.
Proof.
  unfold traf_body_r, traf_spec. destruct (contains_senc tr) as [ok parsed].
  destruct (ok && negb parsed); cbn [negb]; [|reflexivity].
  destruct fm as [m|]; cbn [rbind]; [|reflexivity].
  destruct (xt_tfhd tr) as [tid|]; cbn [rbind]; [|reflexivity].
  destruct (moov_find m tid) as [[[|] [iv|]]|]; reflexivity.
Qed.

(* every traf is visited, each judged on its own: the pass succeeds with l iff l lists, in order, the result of every traf *)
Theorem senc_pass_all_trafs fm s : forall trafs l,
  moof_pass_r fm s trafs = Ok l <-> Forall2 (fun tr r => traf_spec fm s tr = Ok r) trafs l.
Proof.
  induction trafs as [|tr rest IH]; intros l.
  - cbn [moof_pass_r]. split; intros H; [inversion H; constructor|inversion H; reflexivity].
  - cbn [moof_pass_r]. rewrite traf_body_spec. split.
    + intros H. destruct (traf_spec fm s tr) as [r| | |] eqn:E; cbn [rbind] in H; try discriminate.
      destruct (moof_pass_r fm s rest) as [rs| | |] eqn:E2; cbn [rbind] in H; try discriminate.
      inversion H; subst. constructor; [exact E|]. apply IH. reflexivity.
    + intros H. inversion H as [|tr' r rest' rs H1 H2]; subst. rewrite H1. cbn [rbind].
      apply IH in H2. rewrite H2. reflexivity.
Qed.

(* and it fails iff some traf fails after all the earlier ones passed (first error in moof order) *)
Theorem senc_pass_first_error fm s : forall trafs,
  moof_pass_r fm s trafs = Err <->
  exists pre tr post rs, trafs = pre ++ tr :: post /\ Forall2 (fun t r => traf_spec fm s t = Ok r) pre rs /\ traf_spec fm s tr = Err.
Proof.
  induction trafs as [|tr rest IH].
  - cbn [moof_pass_r]. split; [discriminate|]. intros [pre [t [post [rs [H _]]]]]. destruct pre; discriminate.
  - cbn [moof_pass_r]. rewrite traf_body_spec. split.
    + intros H. destruct (traf_spec fm s tr) as [r| | |] eqn:E; cbn [rbind] in H; try discriminate.
      * destruct (moof_pass_r fm s rest) as [rs| | |] eqn:E2; cbn [rbind] in H; try discriminate.
        destruct (proj1 IH eq_refl) as [pre [t [post [rs [H1 [H2 H3]]]]]].
        exists (tr :: pre), t, post, (r :: rs). split; [rewrite H1; reflexivity|]. split; [constructor; assumption|exact H3].
      * exists [], tr, rest, []. split; [reflexivity|]. split; [constructor|exact E].
    + intros [pre [t [post [rs [H1 [H2 H3]]]]]]. destruct pre as [|p pre].
      * cbn in H1. inversion H1; subst. rewrite H3. reflexivity.
      * cbn in H1. inversion H1; subst. inversion H2 as [|? r ? rs' Hp Hr]; subst. rewrite Hp. cbn [rbind].
        assert (moof_pass_r fm s (pre ++ t :: post) = Err) as ->; [|reflexivity].
        apply IH. exists pre, t, post, rs'. split; [reflexivity|]. split; assumption.
Qed.

(* ---------------------------------------------------------------- `break` for `continue` on one path *)
(* moov: track 1 clear (avc1), track 2 encrypted (encv, tenc IV size 8); moof at 0 with traf(track 1){senc: 1 sample, 8 bytes},
   traf(track 2){senc: 1 sample, 8-byte IV}.  The reader path parses the second traf's senc, the changed SR path leaves it unparsed. *)
Definition brk_moov : moovctx := [(Some 1, EAV false None); (Some 2, EAV true (Some 8))].
Definition brk_trafs : list xtraf :=
  [ mkXT (Some 1) None None None [mkSenc false 100 0 1 [1;2;3;4;5;6;7;8]];
    mkXT (Some 2) None None None [mkSenc false 200 0 1 [1;2;3;4;5;6;7;8]] ].

Lemma senc_pass_break_differs :
  moof_pass_r (Some brk_moov) 0 brk_trafs = Ok [None; Some (1, 0, 8)] /\
  moof_pass_sr (Some brk_moov) 0 brk_trafs = Ok [None; Some (1, 0, 8)] /\
  moof_pass_sr_break (Some brk_moov) 0 brk_trafs = Ok [None; None].
Proof. split; [|split]; vm_compute; reflexivity. Qed.
