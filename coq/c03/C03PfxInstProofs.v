(* C03PfxInstProofs.v — the instances of C03StsdProofs.v (counted layout) and C03PfxProofs.v (fixed bytes, then children): dref, trep,
   wvtt, and the audio sample entries (whose reader-path decoder has its own child loop over the READER-path box decoder). *)
From V.lib Require Import Base.
From V.c04 Require Import C04Model C04ReaderProofs C04ContainerProofs.
From V.c03 Require Import C03Model C03Spec C03Proofs C03CanonProofs C03LeafModel C03LeafProofs C03LeafBoxProofs C03StsdProofs C03VseProofs C03PfxModel C03PfxProofs.
Open Scope Z_scope.

(* ---------------------------------------------------------------- dref, trep: the counted layout *)
Section COUNTED.
Variable ld : leafdec.
Hypothesis LD : leaf_ok ld.
Variables (nm : list N) (vf : N) (kids : list ctree).
Hypothesis Hvf : (vf < 4294967296)%N.
Hypothesis HW : Forall (cwf ld) kids.

Lemma counted_size w2 c : (lenN (be4 vf ++ be4 w2 ++ cencs kids) < 4294967288)%N ->
  stsd_size (mkStsd (vf / 16777216) (N.land vf flags_mask) c (map erase kids)) = (8 + lenN (be4 vf ++ be4 w2 ++ cencs kids))%N.
Proof.
  intros Hfit. rewrite lenN_words in *. unfold stsd_size. cbn [sd_kids].
  rewrite (sum_sizes_erase ld), addu64_small by (exact HW || lia). lia.
Qed.

(* dref: the second word is the number of children *)
Theorem dref_pair_window : let p := be4 vf ++ be4 (lenN kids) ++ cencs kids in
  (lenN p < 4294967288)%N -> forall buf q cst cst2 fuel,
  window buf q p -> zlen buf < two63 -> zlen buf - q < Z.of_nat fuel ->
  let v := mkStsd (vf / 16777216) (N.land vf flags_mask) (lenN kids) (map erase kids) in
  let h := mkH nm (8 + lenN p) 8 in
  fst (dref_sr ld fuel h 0 (sr_at buf q cst)) = Ok v /\ fst (dref_r ld fuel h 0 (ir_at buf q cst2)) = Ok v /\ stsd_size v = (8 + lenN p)%N.
Proof.
  intros p Hfit buf q cst cst2 fuel W Hs Hf v h.
  assert (Hc32 : (lenN kids < 4294967296)%N).
  { pose proof (lenN_words vf (lenN kids) (cencs kids)). pose proof (kids_le_bytes ld kids HW). unfold p in Hfit. lia. }
  assert (Hfin : dref_finish vf (lenN kids) (map erase kids) = Ok v).
  { unfold dref_finish, v. replace (lenN (map erase kids)) with (lenN kids) by (unfold lenN; rewrite map_length; reflexivity).
    rewrite N.mod_small by exact Hc32. rewrite N.eqb_refl. reflexivity. }
  destruct (cnt_sr_window ld LD dref_finish true nm vf (lenN kids) kids v Hvf Hc32 HW Hfin Hfit _ _ cst fuel W Hs Hf) as [c1 E1].
  destruct (cnt_r_window ld LD dref_finish nm vf (lenN kids) kids v Hvf Hc32 HW Hfin Hfit _ _ cst2 fuel W Hs Hf) as [c2 E2].
  split; [exact (f_equal fst E1)|]. split; [exact (f_equal fst E2)|apply counted_size; exact Hfit].
Qed.

(* trep: the second word is any TrackID; DecodeTrep reads the body and runs DecodeTrepSR on a private reader *)
Theorem trep_pair_window tid : (tid < 4294967296)%N -> let p := be4 vf ++ be4 tid ++ cencs kids in
  (lenN p < 4294967288)%N -> forall buf q cst cst2 fuel,
  window buf q p -> zlen buf < two63 -> zlen buf - q < Z.of_nat fuel ->
  let v := mkStsd (vf / 16777216) (N.land vf flags_mask) tid (map erase kids) in
  let h := mkH nm (8 + lenN p) 8 in
  fst (trep_sr ld fuel h 0 (sr_at buf q cst)) = Ok v /\ fst (trep_r ld fuel h 0 (ir_at buf q cst2)) = Ok v /\ stsd_size v = (8 + lenN p)%N.
Proof.
  intros Htid p Hfit buf q cst cst2 fuel W Hs Hf v h. destruct (window_range _ _ _ W).
  destruct (cnt_sr_window ld LD trep_finish false nm vf tid kids v Hvf Htid HW eq_refl Hfit _ _ cst fuel W Hs Hf) as [c1 E1].
  split; [exact (f_equal fst E1)|]. split; [|apply counted_size; exact Hfit].
  apply (cnt_deleg_r_window ld LD trep_finish false nm vf tid kids v Hvf Htid HW eq_refl Hfit _ _ cst2 fuel W Hs). fold p. lia.
Qed.
End COUNTED.

(* ---------------------------------------------------------------- the fixed parts of wvtt (8 bytes) and of the audio sample entries (28) *)
Lemma wvtt_pf_window fx buf q : zlen fx = 8 -> window buf q fx -> zlen buf < two63 ->
  wvtt_pf (mkR buf q false) = Ok (be (sub fx 6 2) 0, mkR buf (q + zlen fx) false).
Proof.
  intros Hlen W Hs. unfold wvtt_pf. replace q with (q + 0) at 1 by lia.
  rewrite (skip_bytes_at 6 _ _ _ _ W), (read_fixed_at 2 _ _ _ _ W) by (assumption || lia). rewrite Hlen. reflexivity.
Qed.

Lemma ase_pf_window fx buf q : zlen fx = 28 -> window buf q fx -> zlen buf < two63 ->
  ase_pf (mkR buf q false)
  = Ok (mkAse (be (sub fx 6 2) 0) (be (sub fx 16 2) 0) (be (sub fx 18 2) 0) (be (sub fx 24 4) 0 / 65536), mkR buf (q + zlen fx) false).
Proof.
  intros Hlen W Hs. unfold ase_pf. replace q with (q + 0) at 1 by lia.
  rewrite (skip_bytes_at 6 _ _ _ _ W), (read_fixed_at 2 _ _ _ _ W) by (assumption || lia). cbn [rbind].
  rewrite (skip_bytes_at 8 _ _ _ _ W), (read_fixed_at 2 _ _ _ _ W) by (assumption || lia). cbn [rbind].
  rewrite (read_fixed_at 2 _ _ _ _ W) by lia. cbn [rbind].
  rewrite (skip_bytes_at 4 _ _ _ _ W), (read_fixed_at 4 _ _ _ _ W) by (assumption || lia). cbn [rbind]. rewrite Hlen. reflexivity.
Qed.

(* wvtt: DecodeWvtt (readBoxBody + private reader) and DecodeWvttSR before every canonical payload: 8 fixed bytes, canonical children *)
Theorem wvtt_pair_window : forall ld, leaf_ok ld -> forall nm fx kids,
  length fx = 8%nat -> Forall (cwf ld) kids -> (lenN (fx ++ cencs kids) < 4294967288)%N ->
  forall buf q cst cst2 fuel, window buf q (fx ++ cencs kids) -> zlen buf < two63 -> zlen buf - q + 1 < Z.of_nat fuel ->
  let h := mkH nm (8 + lenN (fx ++ cencs kids)) 8 in
  let v := (be (sub fx 6 2) 0, map erase kids) in
  fst (wvtt_sr ld fuel h 0 (sr_at buf q cst)) = Ok v /\ fst (wvtt_r ld fuel h 0 (ir_at buf q cst2)) = Ok v /\
  wvtt_size v = (8 + lenN (fx ++ cencs kids))%N.
Proof.
  intros ld LD nm fx kids Hfx HW Hfit buf q cst cst2 fuel W Hs Hf h v.
  assert (Hz8 : zlen fx = 8) by (unfold zlen; rewrite Hfx; reflexivity).
  assert (Hl8 : lenN fx = 8%N) by (unfold lenN; rewrite Hfx; reflexivity).
  pose proof (fun buf q => wvtt_pf_window fx buf q Hz8) as Hpf. destruct (window_range _ _ _ W).
  split; [|split].
  - apply (fpe_sr_window ld LD wvtt_e nm fx kids _ HW Hfit Hpf); [rewrite Hl8; reflexivity|assumption..].
  - apply (fpe_deleg_r_window ld LD wvtt_e nm fx kids _ HW Hfit Hpf); [rewrite Hl8; reflexivity|assumption|assumption|lia].
  - unfold wvtt_size, v. cbn [snd]. rewrite lenN_app in *. rewrite (sum_sizes_erase ld) by (exact HW || lia). lia.
Qed.

(* ---------------------------------------------------------------- audio sample entry: the reader path's own child loop *)
Section ASE.
Variable ld : leafdec.
Hypothesis LD : leaf_ok ld.

Lemma ase_kids_r_canon : forall kids, Forall (cwf ld) kids -> (lenN (cencs kids) < 4294967296)%N ->
  forall fuel pos endPos acc buf q cst,
    window buf q (cencs kids) -> q + zlen (cencs kids) = zlen buf -> zlen buf < two63 ->
    (pos + lenN (cencs kids) < 18446744073709551616)%N -> endPos = (pos + lenN (cencs kids))%N ->
    zlen (cencs kids) + 1 < Z.of_nat fuel ->
    fst (ase_kids_r ld fuel pos endPos acc (ir_at buf q cst)) = Ok (rev acc ++ map erase kids).
Proof.
  induction kids as [|k rest IH]; intros HW Hl fuel pos endPos acc buf q cst W He Hs Hp Hend Hf;
    (destruct fuel as [|f]; [unfold zlen in Hf; lia|]); cbn [ase_kids_r].
  - (* at the end of the body DecodeBox returns io.EOF *)
    destruct f as [|f]; [cbn in Hf; lia|]. destruct (window_range _ _ _ W) as [Hq _]. change (zlen (cencs [])) with 0 in He.
    cbn [dec_box_r]. unfold decode_header, read_full, iavail, ir_at. cbn [icharge ibuf ipos icost].
    replace (lenN buf - Z.to_N q)%N with 0%N by (rewrite zlen_lenN in He; lia). cbn [N.eqb map fst]. rewrite app_nil_r. reflexivity.
  - apply Forall_cons_iff in HW as [HWk HWr]. pose proof (cenc_len_ge8 ld k HWk) as Hk8.
    apply fits_cons in Hl as Hl'. destruct Hl' as [Hfk Hlr]. destruct (window_range _ _ _ W).
    cbn [cencs] in *. rewrite zlen_app, lenN_app in *. apply window_app in W as [Wk Wr].
    pose proof (zlen_nonneg (cencs rest)). rewrite (zlen_lenN (cenc k)) in *.
    destruct (dec_box_r_canon ld LD k f pos buf q cst HWk Hfk Wk Hs ltac:(lia) ltac:(lia)) as [c1 E].
    rewrite E, (tsize_erase ld k HWk Hfk), addu64_small by lia.
    replace (rev acc ++ map erase (k :: rest)) with (rev (erase k :: acc) ++ map erase rest)
      by (cbn [rev map]; rewrite <- app_assoc; reflexivity).
    destruct rest as [|k2 rest2].
    + (* the last box ends at startPos + hdr.Size: the loop stops without another DecodeBox *)
      change (lenN (cencs [])) with 0%N in Hend. replace (pos + lenN (cenc k) =? endPos)%N with true by lia.
      cbn [fst map]. rewrite app_nil_r. reflexivity.
    + assert (H8 : (8 <= lenN (cencs (k2 :: rest2)))%N).
      { cbn [cencs]. rewrite lenN_app. pose proof (cenc_len_ge8 ld k2 (Forall_inv HWr)). lia. }
      replace (pos + lenN (cenc k) =? endPos)%N with false by lia. replace (endPos <? pos + lenN (cenc k))%N with false by lia.
      apply (IH HWr Hlr); rewrite ?(zlen_lenN (cenc k)); try assumption; lia.
Qed.

(* DecodeAudioSampleEntry and DecodeAudioSampleEntrySR before every canonical payload: 28 fixed bytes, canonical children *)
Theorem ase_pair_window : forall nm fx kids,
  length fx = 28%nat -> Forall (cwf ld) kids -> (lenN (fx ++ cencs kids) < 4294967288)%N ->
  forall buf q cst cst2 fuel, window buf q (fx ++ cencs kids) -> zlen buf < two63 -> zlen buf - q + 1 < Z.of_nat fuel ->
  let h := mkH nm (8 + lenN (fx ++ cencs kids)) 8 in
  let v := (mkAse (be (sub fx 6 2) 0) (be (sub fx 16 2) 0) (be (sub fx 18 2) 0) (be (sub fx 24 4) 0 / 65536), map erase kids) in
  fst (ase_sr ld fuel h 0 (sr_at buf q cst)) = Ok v /\ fst (ase_r ld fuel h 0 (ir_at buf q cst2)) = Ok v /\
  ase_size v = (8 + lenN (fx ++ cencs kids))%N.
Proof.
  intros nm fx kids Hfx HW Hfit buf q cst cst2 fuel W Hs Hf h v. set (p := fx ++ cencs kids) in *.
  assert (Hz : zlen fx = 28) by (unfold zlen; rewrite Hfx; reflexivity).
  assert (Hl : lenN fx = 28%N) by (unfold lenN; rewrite Hfx; reflexivity).
  assert (HL : lenN p = (28 + lenN (cencs kids))%N) by (unfold p; rewrite lenN_app; lia).
  pose proof (fun buf q => ase_pf_window fx buf q Hz) as Hpf. destruct (window_range _ _ _ W). rewrite (zlen_lenN p) in *.
  split; [|split].
  - apply (fpe_sr_window ld LD ase_e nm fx kids _ HW Hfit Hpf); [rewrite Hl; reflexivity|assumption..].
  - unfold ase_r. destruct (read_box_body_window nm 8 _ _ _ cst2 W ltac:(lia)) as [c2 HB]. fold h in HB. rewrite HB.
    destruct (window_app _ _ _ _ (window_all p)) as [Wf Wk]. rewrite Z.add_0_l, Hz in Wk.
    unfold rnew. rewrite (Hpf p 0 Wf) by (rewrite zlen_lenN; lia). rewrite Z.add_0_l, Hz.
    assert (ER : remaining_bytes (mkR p 28 false) = Ok (cencs kids, mkR p (zlen p) false)).
    { unfold remaining_bytes, rlen. cbn [rerr rbuf rpos].
      replace (zlen p) with (28 + zlen (cencs kids)) at 1 by (unfold p; rewrite zlen_app; lia).
      rewrite (window_gslice _ _ _ Wk). reflexivity. }
    rewrite ER. cbn [hsize h]. rewrite (addu64_small 0 36), addu64_small by lia.
    change (mkI (cencs kids) 0 (icost (ir_at buf (q + zlen p) c2))) with (ir_at (cencs kids) 0 c2).
    pose proof (ase_kids_r_canon kids HW ltac:(lia) fuel (0 + 36)%N (0 + (8 + lenN p))%N [] _ 0 c2 (window_all _) eq_refl
                  ltac:(rewrite zlen_lenN; unfold two63; lia) ltac:(lia) ltac:(lia) ltac:(rewrite zlen_lenN; lia)) as EK.
    destruct (ase_kids_r ld fuel (0 + 36) (0 + (8 + lenN p)) [] (ir_at (cencs kids) 0 c2)) as [rk sk].
    cbn [fst] in EK. rewrite EK. reflexivity.
  - unfold ase_size, v. cbn [snd]. rewrite (sum_sizes_erase ld) by (exact HW || lia). lia.
Qed.
End ASE.
