(* C03Theorems.v — the property theorems of C03 and nothing else.
   Models: C03Model.v (EncodeContainer / EncodeContainerSW, File/MediaSegment/Fragment/InitSegment Encode / EncodeSW,
   the DecodeFile and DecodeFileSR loops over box shapes), C03Registry.v (generated on every run from the
   hook-exported key sets of the two decoder tables). *)
From V.lib Require Import Base.
From V.c04 Require Import C04Model C04AsmModel C04ContainerProofs.
From V.c03 Require Import C03Model C03Spec C03Registry C03Proofs C03CanonProofs C03LeafModel C03LeafProofs C03LeafBoxProofs C03LeafInstProofs C03StsdProofs C03VseProofs C03LeafTruncProofs C03LeafEncProofs C03DelegateProofs C03DelegateExtProofs C03FactsDefs C03Facts C03ClassProofs C03SencPassModel C03SencPassProofs C03EncHistModel C03EncHistProofs C03BodyFnProofs C03PfxModel C03PfxProofs C03PfxInstProofs C03XEntryProofs C03MetaModel C03MetaProofs.
From V.c02 Require C02AggModel C02AggExamples C02AggFragProofs C02AggFileProofs C02AggSencModel C02AggSencProofs.
Open Scope N_scope.

(* Encode to an io.Writer and EncodeSW to a slice writer: identical bytes or both fail, for every container tree and
   every File (init, sidx, segments, fragments, mfra; segment mode and box-tree mode; progressive), given that every
   opaque leaf encodes identically through its own two methods *)
Theorem C03_encode_agree : forall f, agree_file f = true -> file_enc_w f = file_enc_sw true f.
Proof. exact encode_agree. Qed.
Print Assumptions C03_encode_agree.

Theorem C03_box_encode_agree : forall b, agree b = true -> enc_w b = enc_sw b.
Proof. exact box_encode_agree. Qed.
Print Assumptions C03_box_encode_agree.

(* the pinned File.EncodeSW (f87a9e4) drops the mfra box in segment mode; repaired in 33b95e8 *)
Theorem C03_encode_sw_mfra_refuted :
  agree_file mfra_file = true /\ file_enc_w mfra_file = Ok [0;0;0;8;109;102;114;97]%N /\
  file_enc_sw false mfra_file = Ok [] /\ file_enc_sw true mfra_file = file_enc_w mfra_file.
Proof. exact encode_sw_mfra_refuted. Qed.
Print Assumptions C03_encode_sw_mfra_refuted.

(* the two file decode loops build the same File (same init / segment / fragment grouping, same StartPos) for every
   list of top-level box shapes, under the options both support *)
Theorem C03_file_agree : forall o boxes, o_ism o = false -> o_lazy o = false ->
  decode_file_sr o boxes = decode_file_r o boxes.
Proof. exact file_agree. Qed.
Print Assumptions C03_file_agree.

(* every canonical byte string (compact headers, size = 8 + body, or - CLarge - the 16-byte largesize header, size field 1 and
   64-bit size 16 + body, which MdatBox.Encode keeps; any nesting of container kinds; opaque leaves whose
   two decoders accept their canonical payload) is accepted by DecodeBox AND by DecodeBoxSR, and both build the same tree
   (same Size() for every box, hence the same start position for everything that follows).
   The two header decoders and the two separately written child loops are the C04 models; fuel = len + 1. *)
Theorem C03_decode_agree_canonical : forall ld c, leaf_ok ld -> cwf ld c -> fits c ->
  fst (box_sr ld (cenc c)) = Ok (erase c) /\ fst (box_r ld (cenc c)) = Ok (BBox (erase c)).
Proof. exact decode_agree_canonical. Qed.
Print Assumptions C03_decode_agree_canonical.

Theorem C03_decode_agree_canonical_iff : forall ld bs c t, leaf_ok ld -> cwf ld c -> fits c -> bs = cenc c ->
  (fst (box_r ld bs) = Ok (BBox t) <-> fst (box_sr ld bs) = Ok t).
Proof. exact decode_agree_canonical_iff. Qed.
Print Assumptions C03_decode_agree_canonical_iff.

(* file level, bytes: a canonical file (concatenation of canonical top-level boxes) yields the same sequence of boxes,
   hence the same start positions, from the DecodeFile loop (until io.EOF) and the DecodeFileSR loop (until no bytes remain);
   together with C03_file_agree (same assembly for the same box sequence) this is the file-level agreement *)
Theorem C03_file_boxes_agree : forall ld, leaf_ok ld -> forall cs, Forall (cwf ld) cs -> (lenN (cencs cs) < 4294967296)%N ->
  fst (file_sr ld (cencs cs)) = Ok (map erase cs) /\ fst (file_r ld (cencs cs)) = Ok (map erase cs).
Proof. exact file_boxes_agree. Qed.
Print Assumptions C03_file_boxes_agree.

(* the leaves of the correspondence (mdat, free/skip, unknown boxes) are canonical leaves *)
Theorem C03_std_canon_leaf : forall nm p, std_canon_ok nm p -> canon_leaf std_leaves nm p.
Proof. exact std_canon_leaf. Qed.
Print Assumptions C03_std_canon_leaf.

(* mdat behind a 16-byte largesize header (payload below 4 GiB) is a canonical large leaf: both DecodeMdat and DecodeMdatSR
   carry hdr.Hdrlen > 8 over into LargeSize, so both report Size() = 16 + len(payload) *)
Theorem C03_std_canon_large : forall nm p, std_large_ok nm p -> canon_large std_leaves nm p.
Proof. exact std_canon_large. Qed.
Print Assumptions C03_std_canon_large.

(* ---- the separately written LEAF decoder pairs (models of both decoders in C03LeafModel.v, each from its own Go text) ----
   agree_at r1 r2 buf e: the reader-path decoder returned r1 on the body; the SliceReader-path decoder, run on the buffer
   buf = pre ++ body ++ post at the body's position, returns the same value and stands at e = end of the body with no
   accumulated error, or both fail.  hsize = 8 + len body is the compact header (readBoxBody delivers exactly that body). *)
Theorem C03_trun_pair_agree : forall h body pre post,
  hsize h = (8 + lenN body)%N -> (zlen (pre ++ body ++ post) < two63)%Z ->
  agree_at (trun_body_r h body) (trun_sr h (mkR (pre ++ body ++ post) (zlen pre) false))
           (pre ++ body ++ post) (zlen pre + zlen body)%Z.
Proof. intros h body pre post Hsz Hs. exact (trun_pair_window h body _ _ Hsz (window_mid pre body post) Hs). Qed.
Print Assumptions C03_trun_pair_agree.

Theorem C03_senc_pair_agree : forall h body pre post,
  (hlen h = 8 \/ hlen h = 16)%N -> hsize h = (hlen h + lenN body)%N -> (hsize h < 9223372036854775808)%N ->
  (zlen (pre ++ body ++ post) < two63)%Z ->
  agree_at (senc_after_body_r h body) (senc_sr h (mkR (pre ++ body ++ post) (zlen pre) false))
           (pre ++ body ++ post) (zlen pre + zlen body)%Z.
Proof. intros h body pre post Hhl Hsz H63 Hs. exact (senc_pair_window h body _ _ Hhl Hsz H63 (window_mid pre body post) Hs). Qed.
Print Assumptions C03_senc_pair_agree.

(* mdat: compact AND 16-byte header; LargeSize = (hdr.Hdrlen > 8) on both paths *)
Theorem C03_mdat_pair_agree : forall h body pre post,
  (hlen h = 8 \/ hlen h = 16)%N -> hsize h = (hlen h + lenN body)%N -> (hsize h < 9223372036854775808)%N ->
  (zlen (pre ++ body ++ post) < two63)%Z ->
  agree_at (Ok (mkMdat body (8 <? hlen h)%N)) (mdat_sr h (mkR (pre ++ body ++ post) (zlen pre) false))
           (pre ++ body ++ post) (zlen pre + zlen body)%Z.
Proof. intros h body pre post Hhl Hsz H63 _. exact (mdat_pair_window h body _ _ Hhl Hsz H63 (window_mid pre body post)). Qed.
Print Assumptions C03_mdat_pair_agree.

(* whole boxes through DecodeBox / DecodeBoxSR (header, maxSize test, dispatch, leaf decoder): a trun / senc / mdat box with a
   compact header announcing the body that is present, followed by ANY bytes: both reject, or both accept with the same value,
   the same Size(), the same number of bytes consumed, and no accumulated error *)
Theorem C03_leaf_boxes_agree : forall nm body post,
  nm = name_trun \/ nm = name_senc \/ nm = name_mdat ->
  (lenN body < 4294967288)%N -> (zlen (framed nm body post) < two63)%Z ->
  boxes_agree (framed nm body post) (8 + lenN body).
Proof. exact leaf_boxes_agree. Qed.
Print Assumptions C03_leaf_boxes_agree.

(* the complement: the compact header announces MORE body bytes than are present.  DecodeBox fails; DecodeBoxSR fails for trun and
   senc and, for mdat only (exempt from the maxSize test, DecodeMdatSR does not return the error), returns a box with empty Data
   and leaves the accumulated error set.  Neither path reproduces such a string.  Together with C03_leaf_boxes_agree this covers
   EVERY byte string that starts with a valid compact header of one of the three types. *)
Theorem C03_leaf_boxes_truncated : forall nm rest size,
  nm = name_trun \/ nm = name_senc \/ nm = name_mdat ->
  (8 <= size < 4294967296)%N -> (lenN rest + 8 < size)%N -> (zlen (be4 size ++ nm ++ rest) < two63)%Z ->
  leafbox_r (be4 size ++ nm ++ rest) = Err /\
  (nm <> name_mdat -> leafbox_sr (be4 size ++ nm ++ rest) = Err) /\
  (nm = name_mdat -> leafbox_sr (be4 size ++ nm ++ rest) = Ok (LMdat (mkMdat [] false), 8%Z, true)).
Proof. exact leaf_boxes_truncated. Qed.
Print Assumptions C03_leaf_boxes_truncated.

(* the compact-header guard is exact: behind a 16-byte header (never written by TrunBox.Encode, so not a
   canonical string) the two trun decoders differ; witness reproduced on the Go code (T lines) *)
Theorem C03_trun_large_header_differs :
  trun_body_r trun_large_hdr trun_large_body = Ok (mkTrun 0 256 0 0 [mkTS 0 0 0 0; mkTS 0 0 0 0]) /\
  trun_sr trun_large_hdr (rnew trun_large_body) = Err /\
  (exists t s, trun_sr trun_large_hdr (rnew (trun_large_body ++ [0;0;0;7; 0;0;0;9]%N)) = Ok (t, s) /\
               tr_samples t = [mkTS 0 7 0 0; mkTS 0 9 0 0]).
Proof. exact trun_large_header_differs. Qed.
Print Assumptions C03_trun_large_header_differs.

(* the senc pair also differed behind a 16-byte header at the pinned text (DecodeSencSR tested hdr.Size - 16); repaired in
   /repo b8f1424 (another property's finding), the model follows the repaired text: both reject the former witness *)
Theorem C03_senc_large_header_agrees :
  senc_after_body_r senc_large_hdr senc_large_body = Err /\ senc_sr senc_large_hdr (rnew senc_large_body) = Err.
Proof. exact senc_large_header_agrees. Qed.
Print Assumptions C03_senc_large_header_agrees.

(* ---- the leaf hypotheses of the framing theorems, instantiated with the pair models ----
   pair_leaves: DecodeBox / DecodeBoxSR dispatch trun, senc and mdat to the models of their own two decoders (every other leaf
   type to the C04 standard leaves).  It satisfies the leaf contract, and every payload the reader-path decoder accepts is a
   canonical leaf: the SliceReader-path decoder accepts it too, consumes exactly it, and both report Size() = 8 + len. *)
Theorem C03_pair_leaves_ok : leaf_ok pair_leaves.
Proof. exact pair_leaves_ok. Qed.
Print Assumptions C03_pair_leaves_ok.

Theorem C03_pair_canon_trun : forall p t, (lenN p < 4294967288)%N ->
  trun_body_r (mkH name_trun (8 + lenN p) 8) p = Ok t -> canon_leaf pair_leaves name_trun p.
Proof. exact pair_canon_trun. Qed.
Print Assumptions C03_pair_canon_trun.

Theorem C03_pair_canon_senc : forall p v, (8 <= lenN p < 4294967288)%N ->
  senc_after_body_r (mkH name_senc (8 + lenN p) 8) p = Ok v -> canon_leaf pair_leaves name_senc p.
Proof. exact pair_canon_senc. Qed.
Print Assumptions C03_pair_canon_senc.

Theorem C03_pair_canon_mdat : forall p, (lenN p <= max_normal_payload)%N -> canon_leaf pair_leaves name_mdat p.
Proof. exact pair_canon_mdat. Qed.
Print Assumptions C03_pair_canon_mdat.

Theorem C03_pair_canon_large_mdat : forall p, (lenN p < 4294967280)%N -> canon_large pair_leaves name_mdat p.
Proof. exact pair_canon_large_mdat. Qed.
Print Assumptions C03_pair_canon_large_mdat.

(* C03_decode_agree_canonical and C03_file_boxes_agree with no leaf hypothesis left for trun, senc, mdat *)
Theorem C03_pair_decode_agree_canonical : forall c, cwf pair_leaves c -> fits c ->
  fst (box_sr pair_leaves (cenc c)) = Ok (erase c) /\ fst (box_r pair_leaves (cenc c)) = Ok (BBox (erase c)).
Proof. exact pair_decode_agree_canonical. Qed.
Print Assumptions C03_pair_decode_agree_canonical.

Theorem C03_pair_file_boxes_agree : forall cs, Forall (cwf pair_leaves) cs -> (lenN (cencs cs) < 4294967296)%N ->
  fst (file_sr pair_leaves (cencs cs)) = Ok (map erase cs) /\ fst (file_r pair_leaves (cencs cs)) = Ok (map erase cs).
Proof. exact pair_file_boxes_agree. Qed.
Print Assumptions C03_pair_file_boxes_agree.

(* ---- stsd: DecodeStsd (binary.Read x2 on r, DecodeContainerChildren) vs DecodeStsdSR (ReadUint32 x2, DecodeContainerChildrenSR) ----
   on every canonical stsd payload (version/flags, entry count = number of entries, canonical sample entries decoded by ANY leaf
   decoder pair satisfying the leaf contract), wherever it sits in the caller's buffer / reader and whatever follows it: both
   accept, with the same decoded value, and Size() = 8 + len payload.  fuel: any number above the bytes left. *)
Theorem C03_stsd_pair_agree_canonical : forall ld, leaf_ok ld -> forall nm vf cnt kids,
  (vf < 4294967296)%N -> lenN kids = cnt -> Forall (cwf ld) kids ->
  (lenN (be4 vf ++ be4 cnt ++ cencs kids) < 4294967288)%N ->
  forall pre post cst cst2 fuel,
  (zlen (pre ++ (be4 vf ++ be4 cnt ++ cencs kids) ++ post) < two63)%Z ->
  (zlen (pre ++ (be4 vf ++ be4 cnt ++ cencs kids) ++ post) - zlen pre < Z.of_nat fuel)%Z ->
  fst (stsd_sr ld fuel (mkH nm (8 + lenN (be4 vf ++ be4 cnt ++ cencs kids)) 8) 0
         (mkS (mkR (pre ++ (be4 vf ++ be4 cnt ++ cencs kids) ++ post) (zlen pre) false) cst)) = Ok (stsd_val vf cnt kids) /\
  fst (stsd_r ld fuel (mkH nm (8 + lenN (be4 vf ++ be4 cnt ++ cencs kids)) 8) 0
         (mkI (pre ++ (be4 vf ++ be4 cnt ++ cencs kids) ++ post) (lenN pre) cst2)) = Ok (stsd_val vf cnt kids) /\
  stsd_size (stsd_val vf cnt kids) = (8 + lenN (be4 vf ++ be4 cnt ++ cencs kids))%N.
Proof.
  intros ld LD nm vf cnt kids Hvf Hcnt HW Hfit pre post cst cst2 fuel Hs Hf. rewrite ir_at_mid.
  apply (stsd_pair_window ld LD nm vf cnt kids Hvf Hcnt HW Hfit); [apply window_mid|exact Hs|exact Hf].
Qed.
Print Assumptions C03_stsd_pair_agree_canonical.

(* ---- visual sample entry (avc1, hvc1, ...): DecodeVisualSampleEntry (readBoxBody, then the SR decoder on a private reader over
   the body) vs DecodeVisualSampleEntrySR (on the caller's reader) ----
   on every canonical payload (78 fixed bytes a ++ [cnl] ++ b with compressor-name length cnl <= 31, then canonical children),
   wherever it sits and whatever follows: both accept with the same value v (same fields, same children), Size() = 8 + len *)
Theorem C03_vse_pair_agree_canonical : forall ld, leaf_ok ld -> forall nm a b cnl kids,
  length a = 42%nat -> length b = 35%nat -> (cnl <= 31)%N -> Forall (cwf ld) kids ->
  (lenN ((a ++ [cnl] ++ b) ++ cencs kids) < 4294967288)%N ->
  forall pre post cst cst2 fuel,
  (zlen (pre ++ ((a ++ [cnl] ++ b) ++ cencs kids) ++ post) < two63)%Z ->
  (zlen (((a ++ [cnl] ++ b) ++ cencs kids) ++ post) + 1 < Z.of_nat fuel)%Z ->
  exists v, vs_kids v = map erase kids /\ vse_size v = (8 + lenN ((a ++ [cnl] ++ b) ++ cencs kids))%N /\
    fst (vse_sr ld fuel (mkH nm (8 + lenN ((a ++ [cnl] ++ b) ++ cencs kids)) 8) 0
           (mkS (mkR (pre ++ ((a ++ [cnl] ++ b) ++ cencs kids) ++ post) (zlen pre) false) cst)) = Ok v /\
    fst (vse_r ld fuel (mkH nm (8 + lenN ((a ++ [cnl] ++ b) ++ cencs kids)) 8) 0
           (mkI (pre ++ ((a ++ [cnl] ++ b) ++ cencs kids) ++ post) (lenN pre) cst2)) = Ok v.
Proof.
  intros ld LD nm a b cnl kids Ha Hb Hc HW Hfit pre post cst cst2 fuel Hs Hf. rewrite ir_at_mid.
  apply (vse_pair_window ld LD nm a b cnl kids Ha Hb Hc HW Hfit); [apply window_mid|exact Hs|].
  rewrite !zlen_app in *. lia.
Qed.
Print Assumptions C03_vse_pair_agree_canonical.

(* ---- the encoder pairs that are written twice: MdatBox, StsdBox, VisualSampleEntryBox Encode / EncodeSW (models in
   C03LeafModel.v; TrunBox.Encode and SencBox.Encode call their own EncodeSW) ----
   same bytes or both fail, given children that agree; hence these boxes are agreeing leaves of C03_box_encode_agree /
   C03_encode_agree (the hypothesis `agree` is discharged for them) *)
Theorem C03_mdat_enc_agree : forall m, mdat_enc_w m = mdat_enc_sw m /\ agree (ELeaf (mdat_enc_w m) (mdat_enc_sw m)) = true.
Proof. exact mdat_enc_agree. Qed.
Print Assumptions C03_mdat_enc_agree.

Theorem C03_stsd_enc_agree : forall version flags count size kids, agree_list kids = true ->
  stsd_enc_w version flags count size kids = stsd_enc_sw version flags count size kids /\
  agree (ELeaf (stsd_enc_w version flags count size kids) (stsd_enc_sw version flags count size kids)) = true.
Proof. exact (fun v f c s k H => hdr_kids_enc_agree name_stsd s k _ H). Qed.
Print Assumptions C03_stsd_enc_agree.

Theorem C03_vse_enc_agree : forall name v size kids, agree_list kids = true ->
  vse_enc_w name v size kids = vse_enc_sw name v size kids /\
  agree (ELeaf (vse_enc_w name v size kids) (vse_enc_sw name v size kids)) = true.
Proof. exact (fun n v s k H => hdr_kids_enc_agree n s k (fun hd rest => hd ++ vse_fixed_w v ++ rest) H). Qed.
Print Assumptions C03_vse_enc_agree.

(* ---- the delegation pattern of the remaining reader-path decoders (`data := readBoxBody(r, hdr); return DecodeXxxSR(hdr, pos,
   bits.NewFixedSliceReader(data))`) ----
   for EVERY SR decoder expressible as a decision tree of position-relative FixedSliceReader operations (ReadUintN / ReadIntN,
   ReadBytes, ReadFixedLengthString, SkipBytes, AccError; control flow free to depend on every value read): if its run on the
   private reader over the body ends without accumulated error, its run on the caller's reader, with the body anywhere in the
   buffer and anything after it, returns the same value and stops at the same offset into the body, without error.
   (RemainingBytes, NrRemainingBytes, LookAhead, SetPos ... are not position-relative: the decoders of findings C03-F3..F5 used them.) *)
Theorem C03_delegate_sound : forall A (p : sprog A) body a s', local_prog p -> (zlen body < 4611686018427387904)%Z ->
  run_sprog p (rnew body) = Ok (a, s') -> rerr s' = false ->
  forall pre post, (zlen (pre ++ body ++ post) < two63)%Z ->
    run_sprog p (mkR (pre ++ body ++ post) (zlen pre) false)
    = Ok (a, mkR (pre ++ body ++ post) (zlen pre + rpos s')%Z false).
Proof. intros A p body a s' Hl Hb E He pre post Hs. exact (delegate_sound A p body a s' Hl Hb E He _ _ (window_mid pre body post) Hs). Qed.
Print Assumptions C03_delegate_sound.

(* the same in the form the decoders use it: reader path = program on a private reader over the body (AccError consulted or not),
   SR path = program on the caller's reader + AccError; mfhd_prog_r/sr, tfdt_prog_r/sr (written twice in Go) and tfhd_prog are
   local programs tied to DecodeMfhd/SR, DecodeTfdt/SR, DecodeTfhd/SR by the P lines of the correspondence *)
Theorem C03_prog_pair_agree : forall A (p : sprog A) (consult : bool) body a s', local_prog p -> (zlen body < 4611686018427387904)%Z ->
  run_sprog p (rnew body) = Ok (a, s') -> rerr s' = false ->
  forall pre post, (zlen (pre ++ body ++ post) < two63)%Z ->
    prog_body_r consult p body = Ok a /\
    prog_sr p (mkR (pre ++ body ++ post) (zlen pre) false) = Ok (a, mkR (pre ++ body ++ post) (zlen pre + rpos s')%Z false).
Proof. intros A p c body a s' Hl Hb E He pre post Hs. exact (prog_pair_agree A p c body a s' Hl Hb E He _ _ (window_mid pre body post) Hs). Qed.
Print Assumptions C03_prog_pair_agree.

Theorem C03_fragment_progs_local : local_prog mfhd_prog_sr /\ mfhd_prog_r = mfhd_prog_sr /\ local_prog tfdt_prog_sr /\
  tfdt_prog_r = tfdt_prog_sr /\ local_prog tfhd_prog.
Proof. exact (conj mfhd_local (conj eq_refl (conj tfdt_local (conj eq_refl tfhd_local)))). Qed.
Print Assumptions C03_fragment_progs_local.

(* mfhd: DecodeMfhd and DecodeMfhdSR agree on every body of at least 8 bytes (on a shorter one DecodeMfhd returns zeros - it does not
   consult its reader's error - and DecodeMfhdSR fails or reads on; never reproduced) *)
Theorem C03_mfhd_pair_agree : forall body pre post, (8 <= zlen body < 4611686018427387904)%Z -> (zlen (pre ++ body ++ post) < two63)%Z ->
  exists a, prog_body_r false mfhd_prog_r body = Ok a /\
            prog_sr mfhd_prog_sr (mkR (pre ++ body ++ post) (zlen pre) false) = Ok (a, mkR (pre ++ body ++ post) (zlen pre + 8)%Z false).
Proof. intros body pre post Hb Hs. exact (mfhd_pair_agree body _ _ Hb (window_mid pre body post) Hs). Qed.
Print Assumptions C03_mfhd_pair_agree.

(* the two dispatch tables register the same box types (regenerated from /repo on every run) *)
Theorem C03_registry : keys_decoders = keys_decoders_sr.
Proof. exact registry_equal. Qed.
Print Assumptions C03_registry.


(* ---- every registered pair classified from the sources on every run ----
   The delegation theorem for the operations the delegating SR decoders actually use (harness/c03/srcfacts.go finds them in the
   sources on every run): additionally ReadZeroTerminatedString / ReadPossiblyZeroTerminatedString (count below 2^62),
   ReadFixedLengthString with ANY int count (a run that ends without error read it inside the body), and positions relative to the
   decoder's entry (`initPos := sr.GetPos()` ... `sr.GetPos() - initPos`: XRelPos, origin 0 on the private reader, the offset of the
   body on the caller's reader).  Buffers below 2^61 bytes, so that hdr.payloadLen() < 2^61 (the bound the extractor uses for counts). *)
Theorem C03_delegate_sound_ext : forall A (p : xprog A) body a s', local_xprog p ->
  run_xprog 0 p (rnew body) = Ok (a, s') -> rerr s' = false ->
  forall pre post, (zlen (pre ++ body ++ post) < 2305843009213693952)%Z ->
    run_xprog (zlen pre) p (mkR (pre ++ body ++ post) (zlen pre) false)
    = Ok (a, mkR (pre ++ body ++ post) (zlen pre + rpos s')%Z false).
Proof.
  intros A p body a s' Hl E He pre post Hs. pose proof (window_mid pre body post) as W. destruct (window_range _ _ _ W).
  apply (delegate_sound_x A p body a s' Hl); [|exact E|exact He|exact W|]; pose proof (zlen_nonneg body); unfold two62; lia.
Qed.
Print Assumptions C03_delegate_sound_ext.

(* instantiated ONCE for all delegating pairs: reader path = [the header guard;] readBoxBody, the SR decoder's program on a private
   reader over the body, returning what it returns (strict: it ends with `return b, sr.AccError()`); SR path = [the same guard;] the
   program on the caller's reader.  Whenever the private run ends without accumulated error, both paths fail on the guard or both
   return the same value, the SR path stopping at the end of what the private run read, without error. *)
Theorem C03_delegating_pair_agree : forall A (p : xprog A) (guard strict : bool) body a s', local_xprog p ->
  run_xprog 0 p (rnew body) = Ok (a, s') -> rerr s' = false ->
  forall pre post, (zlen (pre ++ body ++ post) < 2305843009213693952)%Z ->
    (guard = true -> xprog_body_r guard strict p body = Err /\
                     xprog_sr guard strict p (mkR (pre ++ body ++ post) (zlen pre) false) = Err) /\
    (guard = false -> xprog_body_r guard strict p body = Ok a /\
                      xprog_sr guard strict p (mkR (pre ++ body ++ post) (zlen pre) false)
                      = Ok (a, mkR (pre ++ body ++ post) (zlen pre + rpos s')%Z false)).
Proof.
  intros A p guard strict body a s' Hl E He pre post Hs. pose proof (window_mid pre body post) as W. destruct (window_range _ _ _ W).
  apply (xprog_pair_agree A p guard strict body a s' Hl); [|exact E|exact He|exact W|]; pose proof (zlen_nonneg body); unfold two62; lia.
Qed.
Print Assumptions C03_delegating_pair_agree.

(* the programs of C03_delegate_sound are extended programs with the same runs *)
Theorem C03_sprog_embeds : forall A (p : sprog A), (local_prog p -> local_xprog (xprog_of_sprog p)) /\
  forall o s, run_xprog o (xprog_of_sprog p) s = run_sprog p s.
Proof. exact (fun A p => conj (xprog_of_sprog_local p) (xprog_of_sprog_run p)). Qed.
Print Assumptions C03_sprog_embeds.

(* EVERY registered box type (c03_decoder_facts is regenerated from the sources, keys_decoders from the running library, on every
   run) has a pair that is
     - delegating (shape checked by the extractor) with a position-relative SR decoder: C03_delegating_pair_agree applies; or
       delegating and named: DecodeVisualSampleEntry (C03_vse_pair_agree_canonical), DecodeTrep, DecodeWvtt (their pair theorems
       below), DecodeEvte, DecodeStpp (C03_xentry_pairs_agree_canonical), DecodeMeta (C03_meta_pair_agree_canonical) / the explored list
       c03_delegating_nonrelative_explored = esds sgpd;
     - a container twin (same text around DecodeContainerChildren / ...SR; KCont of C03_decode_agree_canonical), also when its SR
       decoder returns sr.AccError() instead of nil (edts sinf stbl: C03_twin_accerr_canonical);
     - moov / moof: the reader path reads the body and runs the text of the SR decoder on it, KContBody with the extracted flag;
     - a pure twin (neither decoder touches its reader, same text: emeb, vtte), a raw-body pair (readBoxBody / ReadBytes(payloadLen)
       + AccError into the same box: free, skip, cdat, styp; the opaque leaf std_r / std_sr of C03_std_canon_leaf) or a body-function
       pair (the same pure function of the body bytes on both paths: avcC hvcC av1C dac3 dec3 mdat; C03_bodyfn_pair_agree);
     - separately written and named: c03_separate_proved = trun senc stsd mfhd tfdt dref, audio sample entry (their pair theorems) or
       c03_separate_explored = (none).
   A reader-path decoder that is rewritten by hand leaves its class and breaks this theorem until it gets a pair model. *)
Theorem C03_all_pairs_classified :
  forall k, In k keys_decoders ->
    exists f, In f c03_decoder_facts /\ df_key f = k /\
      match df_class f with
      | CDelegating => df_relative f = true
                       \/ In (df_r f) c03_delegating_nonrelative_proved \/ In (df_r f) c03_delegating_nonrelative_explored
      | CContainerTwin => True
      | CContainerBody => std_kind k = KContBody (df_accerr f)
      | CPureTwin | CRawBody | CBodyFn => std_kind k = KLeaf
      | CSeparate => In (df_r f) c03_separate_proved \/ In (df_r f) c03_separate_explored
      end.
Proof. exact all_pairs_classified. Qed.
Print Assumptions C03_all_pairs_classified.

Theorem C03_facts_cover_registry : map df_key c03_decoder_facts = keys_decoders /\ map df_key c03_decoder_facts = keys_decoders_sr.
Proof. exact facts_cover_registry. Qed.
Print Assumptions C03_facts_cover_registry.

(* the dispatch table of the framing model used in the correspondence agrees with the classes found in the sources *)
Theorem C03_kinds_match : forallb kind_matches c03_decoder_facts = true.
Proof. exact kinds_match. Qed.
Print Assumptions C03_kinds_match.

(* encoders: every type with Encode and EncodeSW either writes EncodeSW's bytes (76 types: C03_enc_delegate_agree), is
   EncodeContainer / EncodeContainerSW or EncodeHeader / EncodeHeaderSW alone (C03_encode_agree), is the same text twice up to
   Encode <-> EncodeSW (File, MediaSegment, Fragment, InitSegment: C03_encode_agree; Av1CBox HvcCBox MoofBox: explored), or is
   separately written and named (MdatBox StsdBox VisualSampleEntryBox: C03_*_enc_agree; the explored list) *)
Theorem C03_all_encoders_classified :
  forall f, In f c03_encoder_facts ->
    match ef_class f with
    | EDelegating | EContainer | EHeader => True
    | EPrelude => In (ef_type f) c03_enc_prelude_proved
    | ETwinDeleg => True
    | ETwin => In (ef_type f) c03_enc_twin_proved \/ In (ef_type f) c03_enc_twin_explored
    | ESeparate => In (ef_type f) c03_enc_separate_proved \/ In (ef_type f) c03_enc_separate_explored
    end.
Proof. exact all_encoders_classified. Qed.
Print Assumptions C03_all_encoders_classified.

Theorem C03_enc_delegate_agree : forall size cap out,
  (forall bs, out = Some bs -> (N.of_nat (length bs) <= size)%N /\ (N.of_nat (length bs) <= cap)%N) ->
  enc_delegating_w size out = enc_direct_sw cap out.
Proof. exact enc_delegate_agree. Qed.
Print Assumptions C03_enc_delegate_agree.

(* the proviso is needed: a Size() smaller than what EncodeSW writes makes Encode fail where EncodeSW on a larger writer succeeds *)
Theorem C03_enc_delegate_size_needed : exists size cap out, enc_delegating_w size out <> enc_direct_sw cap out.
Proof. exact enc_delegate_size_needed. Qed.
Print Assumptions C03_enc_delegate_size_needed.

(* ---- third round: the per-moof second senc pass INSIDE the two file loops, each transcribed from its own Go text
   (mp4/file.go DecodeFile -> traf_body_r / moof_pass_r / decode_file_xr; mp4/boxsr.go DecodeFileSR -> traf_body_sr / moof_pass_sr /
   decode_file_xsr; the shared callees ContainsSencBox, IsEncrypted / GetSinf, ParseReadSenc, ParseReadBox are the C04 models).
   For every list of top-level boxes (C04 shape + size; a moov carries its tracks - tkhd id, clear / encrypted entry, tenc IV size -,
   a moof its trafs - tfhd id, saio, sbgp / sgpd, senc-like children) the two loops return the same File (grouping, StartPos) AND
   the same state of the picked senc of every traf of every moof, or both fail. *)
Theorem C03_file_agree_senc : forall o boxes, o_ism o = false -> o_lazy o = false ->
  decode_file_xsr o boxes = decode_file_xr o boxes.
Proof. exact file_agree_senc. Qed.
Print Assumptions C03_file_agree_senc.

(* the pass itself: same function on both paths; it visits EVERY traf, each judged on its own (clear track: untouched; encrypted or no
   moov: ParseReadSenc with the tenc / default IV size; no tfhd under a moov: error), and fails exactly at the first failing traf *)
Theorem C03_senc_pass_agree : forall fm start trafs,
  moof_pass_sr fm start trafs = moof_pass_r fm start trafs /\
  (forall l, moof_pass_r fm start trafs = Ok l <-> Forall2 (fun tr r => traf_spec fm start tr = Ok r) trafs l) /\
  (moof_pass_r fm start trafs = Err <->
   exists pre tr post rs, trafs = pre ++ tr :: post /\ Forall2 (fun t r => traf_spec fm start t = Ok r) pre rs /\ traf_spec fm start tr = Err).
Proof. exact (fun fm s trafs => conj (moof_passes_agree fm s trafs) (conj (senc_pass_all_trafs fm s trafs) (senc_pass_first_error fm s trafs))). Qed.
Print Assumptions C03_senc_pass_agree.

(* a `break` where `continue` was meant, on ONE path (a clear traf ends the SR loop): the theorem is false of that text - the traf of
   the encrypted track behind a clear one keeps its unparsed senc on the SR path only *)
Theorem C03_senc_pass_break_differs :
  moof_pass_r (Some brk_moov) 0 brk_trafs = Ok [None; Some (1, 0, 8)] /\
  moof_pass_sr (Some brk_moov) 0 brk_trafs = Ok [None; Some (1, 0, 8)] /\
  moof_pass_sr_break (Some brk_moov) 0 brk_trafs = Ok [None; None].
Proof. exact senc_pass_break_differs. Qed.
Print Assumptions C03_senc_pass_break_differs.

(* ---- third round: encode HISTORIES.  Encode (io.Writer) and EncodeSW (SliceWriter) of MoofBox, MdatBox, Fragment, MediaSegment and File
   as STATE TRANSFORMERS, one model function per Go text (C03EncHistModel.v) over the aggregate states of C02 (tfhd / trun flags and
   defaults, trun data offsets, mdat LargeSize, EncOptimize of fragments and segments; OptimizeTfhdTrun, SetTrunDataOffsets and
   MdatBox.Size exist once in Go and are the C02 models; opaque boxes are agreeing leaves).
   State AND output after Encode equal state and output after EncodeSW, for every state: *)
Theorem C03_encode_state_agree :
  (forall fr, hfrag_w fr = hfrag_sw fr) /\ (forall s, hseg_w s = hseg_sw s) /\ (forall f, hfile_w f = hfile_sw f) /\
  (forall m, hmoof_w m = hmoof_sw m) /\ (forall m, hmdat_w m = hmdat_sw m).
Proof. exact encode_pair_agree. Qed.
Print Assumptions C03_encode_state_agree.

(* hence for EVERY history - any interleaving of Encode, EncodeSW, Size, Info and ARBITRARY state changes in between (HApply g:
   additions of samples, optimisation switched on or off, ...) - on every File / MediaSegment / Fragment: two histories that differ
   only in which encoder is called at each encoding step (Encode then EncodeSW, EncodeSW twice, ...) give the same outcome at every
   step and the same final state *)
Theorem C03_encode_history_agree :
  (forall h1 h2 (f : C02AggModel.afile), same_history h1 h2 -> run_hhist hfile_agg f h1 = run_hhist hfile_agg f h2) /\
  (forall h1 h2 (s : C02AggModel.aseg), same_history h1 h2 -> run_hhist hseg_agg s h1 = run_hhist hseg_agg s h2) /\
  (forall h1 h2 (fr : C02AggModel.afrag), same_history h1 h2 -> run_hhist hfrag_agg fr h1 = run_hhist hfrag_agg fr h2).
Proof. exact encode_history_agree. Qed.
Print Assumptions C03_encode_history_agree.

(* composition with C02: the histories of the C02 aggregate model (one function for both encoders) are histories of the two-text
   model, and C02_history_file holds for it: once an Encode OR an EncodeSW has succeeded on a well-formed File, every later Size /
   Info / Encode / EncodeSW, through either text, answers with the same boxes and their total length *)
Theorem C03_encode_history_c02 :
  (forall ops f, run_hhist hfile_agg f (map hop_of_aop ops) = C02AggModel.run_hist C02AggModel.afile_step f ops) /\
  (forall ops s, run_hhist hseg_agg s (map hop_of_aop ops) = C02AggModel.run_hist C02AggModel.aseg_step s ops) /\
  (forall ops fr, run_hhist hfrag_agg fr (map hop_of_aop ops) = C02AggModel.run_hist C02AggModel.afrag_step fr ops) /\
  (forall f ops1 o ops2 f1 f2 boxes,
     snd (run_hhist hfile_agg f (map hop_of_aop ops1)) = f1 -> ~ In C02AggModel.OutPanic (fst (run_hhist hfile_agg f (map hop_of_aop ops1))) ->
     (o = C02AggModel.OpEncode \/ o = C02AggModel.OpEncodeSW) -> hstep hfile_agg f1 (hop_of_aop o) = (f2, C02AggModel.OutBytes boxes) ->
     C02AggFileProofs.afile_wf f1 = true ->
     run_hhist hfile_agg f (map hop_of_aop (ops1 ++ o :: ops2)) =
       (fst (run_hhist hfile_agg f (map hop_of_aop ops1)) ++ C02AggModel.OutBytes boxes ::
          map (C02AggFragProofs.expected boxes (lenN (concat boxes))) ops2, f2)).
Proof.
  exact (conj (proj1 history_refines_c02) (conj (proj1 (proj2 history_refines_c02)) (conj (proj2 (proj2 history_refines_c02)) encode_history_settles))).
Qed.
Print Assumptions C03_encode_history_c02.

(* a stale trun data offset on ONE encoder: an EncodeSW that sets the offsets only while one is unset agrees with Encode on every single
   encoding of a fresh fragment, and is refuted by EncodeSW, one more sample, EncodeSW (offset 133 kept where 149 is due) *)
Theorem C03_encode_stale_offset_refuted :
  same_history stale_hist_sw stale_hist_w /\
  first_doff (snd (run_hhist hfrag_agg (C02AggExamples.ex_frag false) stale_hist_sw)) = Some 149%Z /\
  first_doff (snd (run_hhist hfrag_agg (C02AggExamples.ex_frag false) stale_hist_w)) = Some 149%Z /\
  first_doff (snd (run_hhist hfrag_agg_stale (C02AggExamples.ex_frag false) stale_hist_w)) = Some 149%Z /\
  first_doff (snd (run_hhist hfrag_agg_stale (C02AggExamples.ex_frag false) stale_hist_sw)) = Some 133%Z.
Proof. exact stale_offset_refuted. Qed.
Print Assumptions C03_encode_stale_offset_refuted.

(* ---- third round: shrinking the explored-only lists ----
   BODY-FUNCTION pairs (class CBodyFn, found by the extractor: avcC hvcC av1C dac3 dec3, and mdat): reader path = readBoxBody, then a pure
   function F of the body; SR path = the same F of sr.ReadBytes(hdr.payloadLen()), with or without a test of the accumulated error
   in between.  With the body present - wherever it sits in the caller's buffer, whatever follows - the SR decoder returns what the
   reader-path decoder returns, stands at the end of the body, and has no accumulated error; with the body cut short the variant WITH
   the test fails (as readBoxBody does), the variant without it hands F the empty slice and leaves the error set. *)
Theorem C03_bodyfn_pair_agree : forall A (F : list N -> res A) check_acc body pre post, (zlen (pre ++ body ++ post) < two63)%Z ->
  bodyfn_sr F check_acc (zlen body) (mkR (pre ++ body ++ post) (zlen pre) false)
  = match bodyfn_r F body with
    | Ok a => Ok (a, mkR (pre ++ body ++ post) (zlen pre + zlen body)%Z false)
    | Err => Err | Panic => Panic | OutOfFuel => OutOfFuel
    end.
Proof. intros A F c body pre post _. exact (bodyfn_pair_agree F c body _ _ (window_mid pre body post)). Qed.
Print Assumptions C03_bodyfn_pair_agree.

Theorem C03_bodyfn_short : forall A (F : list N -> res A) check_acc n buf pos, (0 <= pos)%Z -> (zlen buf - pos < n)%Z -> (zlen buf < two63)%Z ->
  bodyfn_sr F check_acc n (mkR buf pos false) =
  if check_acc then Err else match F [] with Ok a => Ok (a, mkR buf pos true) | Err => Err | Panic => Panic | OutOfFuel => OutOfFuel end.
Proof. exact (fun A F => bodyfn_short F). Qed.
Print Assumptions C03_bodyfn_short.

(* container twins whose SR decoder ends `return b, sr.AccError()` (edts sinf stbl): on a canonical box, at ANY position of the
   caller's buffer (so at any nesting depth) and whatever follows, the test never fires: the decoder is the KCont decoder of
   C03_decode_agree_canonical, and the reader is left without accumulated error at the end of the box *)
Theorem C03_twin_accerr_canonical : forall ld c, cwf ld c -> fits c ->
  forall fuel sp pre post cst, (zlen (pre ++ cenc c ++ post) < two63)%Z -> (sp + lenN (cenc c) < 18446744073709551616)%N ->
    twin_accerr_sr ld fuel sp (sr_at (pre ++ cenc c ++ post) (zlen pre) cst) = dec_box_sr ld fuel sp (sr_at (pre ++ cenc c ++ post) (zlen pre) cst) /\
    (fst (dec_box_sr ld fuel sp (sr_at (pre ++ cenc c ++ post) (zlen pre) cst)) = OutOfFuel \/
     (fst (dec_box_sr ld fuel sp (sr_at (pre ++ cenc c ++ post) (zlen pre) cst)) = Ok (erase c) /\
      rerr (sr (snd (dec_box_sr ld fuel sp (sr_at (pre ++ cenc c ++ post) (zlen pre) cst)))) = false)).
Proof. intros ld c Hw Hf fuel sp pre post cst Hs Hsp. exact (twin_accerr_canonical ld c Hw Hf fuel sp _ _ cst (window_mid pre (cenc c) post) Hs Hsp). Qed.
Print Assumptions C03_twin_accerr_canonical.

(* SencBox.Encode = `s.setSubSamplesUsedFlag(); <delegation pattern>` and EncodeSW starts with the same call (class EPrelude): same final
   state and same bytes for EVERY idempotent prelude, provided Size() after the prelude covers what is written; instantiated with the C02
   model of setSubSamplesUsedFlag, which is idempotent (C02AggSencProofs.senc_setflag_idem) *)
Theorem C03_enc_prelude_agree :
  (forall S (p : S -> S) size out cap s, (forall x, p (p x) = p x) ->
     (forall bs, out (p s) = Some bs -> (N.of_nat (length bs) <= size (p s))%N /\ (N.of_nat (length bs) <= cap)%N) ->
     enc_prelude_w p size out s = enc_prelude_sw p cap out s) /\
  (forall size out cap s,
     (forall bs, out (C02AggSencModel.senc_setflag s) = Some bs ->
        (N.of_nat (length bs) <= size (C02AggSencModel.senc_setflag s))%N /\ (N.of_nat (length bs) <= cap)%N) ->
     enc_prelude_w C02AggSencModel.senc_setflag size out s = enc_prelude_sw C02AggSencModel.senc_setflag cap out s).
Proof.
  exact (conj (fun S p size out cap s => enc_prelude_agree p size out cap s)
              (fun size out cap s H => enc_prelude_agree C02AggSencModel.senc_setflag size out cap s C02AggSencProofs.senc_setflag_idem H)).
Qed.
Print Assumptions C03_enc_prelude_agree.

(* ---- more pairs modelled on both sides (C03PfxModel.v): payload = fixed bytes, then child boxes ----
   dref (DecodeDref: binary.Read x2 + DecodeContainerChildren on r + EntryCount test / DecodeDrefSR) and trep (DecodeTrep: readBoxBody, then
   DecodeTrepSR on a private reader / DecodeTrepSR): on every canonical payload - version/flags word, second word (the number of
   children for dref, any TrackID for trep), canonical children decoded by ANY leaf pair satisfying the leaf contract -, wherever it
   sits and whatever follows, both decoders accept with the same value, and Size() = 8 + len payload *)
Theorem C03_counted_pairs_agree_canonical :
  (forall ld, leaf_ok ld -> forall nm vf kids,
     (vf < 4294967296)%N -> Forall (cwf ld) kids -> (lenN (be4 vf ++ be4 (lenN kids) ++ cencs kids) < 4294967288)%N ->
     forall pre post cst cst2 fuel,
     (zlen (pre ++ (be4 vf ++ be4 (lenN kids) ++ cencs kids) ++ post) < two63)%Z ->
     (zlen (pre ++ (be4 vf ++ be4 (lenN kids) ++ cencs kids) ++ post) - zlen pre < Z.of_nat fuel)%Z ->
     let v := mkStsd (vf / 16777216) (N.land vf flags_mask) (lenN kids) (map erase kids) in
     let h := mkH nm (8 + lenN (be4 vf ++ be4 (lenN kids) ++ cencs kids)) 8 in
     fst (dref_sr ld fuel h 0 (mkS (mkR (pre ++ (be4 vf ++ be4 (lenN kids) ++ cencs kids) ++ post) (zlen pre) false) cst)) = Ok v /\
     fst (dref_r ld fuel h 0 (mkI (pre ++ (be4 vf ++ be4 (lenN kids) ++ cencs kids) ++ post) (lenN pre) cst2)) = Ok v /\
     stsd_size v = (8 + lenN (be4 vf ++ be4 (lenN kids) ++ cencs kids))%N) /\
  (forall ld, leaf_ok ld -> forall nm vf tid kids,
     (vf < 4294967296)%N -> (tid < 4294967296)%N -> Forall (cwf ld) kids -> (lenN (be4 vf ++ be4 tid ++ cencs kids) < 4294967288)%N ->
     forall pre post cst cst2 fuel,
     (zlen (pre ++ (be4 vf ++ be4 tid ++ cencs kids) ++ post) < two63)%Z ->
     (zlen (pre ++ (be4 vf ++ be4 tid ++ cencs kids) ++ post) - zlen pre < Z.of_nat fuel)%Z ->
     let v := mkStsd (vf / 16777216) (N.land vf flags_mask) tid (map erase kids) in
     let h := mkH nm (8 + lenN (be4 vf ++ be4 tid ++ cencs kids)) 8 in
     fst (trep_sr ld fuel h 0 (mkS (mkR (pre ++ (be4 vf ++ be4 tid ++ cencs kids) ++ post) (zlen pre) false) cst)) = Ok v /\
     fst (trep_r ld fuel h 0 (mkI (pre ++ (be4 vf ++ be4 tid ++ cencs kids) ++ post) (lenN pre) cst2)) = Ok v /\
     stsd_size v = (8 + lenN (be4 vf ++ be4 tid ++ cencs kids))%N).
Proof.
  split.
  - intros ld LD nm vf kids Hvf HW Hfit pre post cst cst2 fuel Hs Hf. rewrite ir_at_mid.
    apply (dref_pair_window ld LD nm vf kids Hvf HW Hfit); [apply window_mid|exact Hs|exact Hf].
  - intros ld LD nm vf tid kids Hvf Htid HW Hfit pre post cst cst2 fuel Hs Hf. rewrite ir_at_mid.
    apply (trep_pair_window ld LD nm vf kids Hvf HW tid Htid Hfit); [apply window_mid|exact Hs|exact Hf].
Qed.
Print Assumptions C03_counted_pairs_agree_canonical.

(* wvtt (DecodeWvtt: readBoxBody + private reader / DecodeWvttSR: 8 fixed bytes, `for pos < endPos` DecodeBoxSR) and the audio sample entries
   mp4a enca ac-3 ec-3 (DecodeAudioSampleEntry: readBoxBody, 28 fixed bytes on a private reader, then the READER-path DecodeBox on the rest
   until io.EOF / DecodeAudioSampleEntrySR: 28 fixed bytes, `for pos < lastPos` DecodeBoxSR): on every canonical payload (ANY fixed bytes
   of that length, canonical children) both decoders accept with the same fields and children, Size() = 8 + len payload *)
Theorem C03_entry_pairs_agree_canonical :
  (forall ld, leaf_ok ld -> forall nm fx kids,
     length fx = 8%nat -> Forall (cwf ld) kids -> (lenN (fx ++ cencs kids) < 4294967288)%N ->
     forall pre post cst cst2 fuel,
     (zlen (pre ++ (fx ++ cencs kids) ++ post) < two63)%Z -> (zlen ((fx ++ cencs kids) ++ post) + 1 < Z.of_nat fuel)%Z ->
     exists dri,
       fst (wvtt_sr ld fuel (mkH nm (8 + lenN (fx ++ cencs kids)) 8) 0 (mkS (mkR (pre ++ (fx ++ cencs kids) ++ post) (zlen pre) false) cst)) = Ok (dri, map erase kids) /\
       fst (wvtt_r ld fuel (mkH nm (8 + lenN (fx ++ cencs kids)) 8) 0 (mkI (pre ++ (fx ++ cencs kids) ++ post) (lenN pre) cst2)) = Ok (dri, map erase kids) /\
       wvtt_size (dri, map erase kids) = (8 + lenN (fx ++ cencs kids))%N) /\
  (forall ld, leaf_ok ld -> forall nm fx kids,
     length fx = 28%nat -> Forall (cwf ld) kids -> (lenN (fx ++ cencs kids) < 4294967288)%N ->
     forall pre post cst cst2 fuel,
     (zlen (pre ++ (fx ++ cencs kids) ++ post) < two63)%Z -> (zlen ((fx ++ cencs kids) ++ post) + 1 < Z.of_nat fuel)%Z ->
     exists a,
       fst (ase_sr ld fuel (mkH nm (8 + lenN (fx ++ cencs kids)) 8) 0 (mkS (mkR (pre ++ (fx ++ cencs kids) ++ post) (zlen pre) false) cst)) = Ok (a, map erase kids) /\
       fst (ase_r ld fuel (mkH nm (8 + lenN (fx ++ cencs kids)) 8) 0 (mkI (pre ++ (fx ++ cencs kids) ++ post) (lenN pre) cst2)) = Ok (a, map erase kids) /\
       ase_size (a, map erase kids) = (8 + lenN (fx ++ cencs kids))%N).
Proof.
  split; intros ld LD nm fx kids Hfx HW Hfit pre post cst cst2 fuel Hs Hf; eexists; rewrite ir_at_mid.
  - apply (wvtt_pair_window ld LD nm fx kids Hfx HW Hfit); [apply window_mid|exact Hs|rewrite !zlen_app in *; lia].
  - apply (ase_pair_window ld LD nm fx kids Hfx HW Hfit); [apply window_mid|exact Hs|rewrite !zlen_app in *; lia].
Qed.
Print Assumptions C03_entry_pairs_agree_canonical.

(* evte and stpp (both reader-path decoders: readBoxBody + private reader; SR decoders: a prefix, the test of the accumulated error, then
   `for { rest := payloadLen - (sr.GetPos() - initPos); if rest <= 0 { break }; DecodeBoxSR(pos, sr) ... }`, return sr.AccError()).
   The prefix is a LOCAL extended reader program (the hypothesis of C03_delegate_sound_ext; for stpp: two fixed reads, then up to three
   zero-terminated strings whose maximal lengths are computed from payloadLen and the position relative to the entry).
   evte: on EVERY payload of 8 bytes followed by canonical children both decoders accept with the same value;
   stpp: on every payload fx ++ canonical children such that the prefix, run on the private reader over the payload, ends without
   error exactly behind fx (the strings are terminated inside fx), both decoders accept with the same strings and children.
   Buffers below 2^62 bytes. *)
Theorem C03_xentry_pairs_agree_canonical :
  (forall ld, leaf_ok ld -> forall nm fx kids,
     length fx = 8%nat -> Forall (cwf ld) kids -> (lenN (fx ++ cencs kids) < 4294967288)%N ->
     forall pre post cst cst2 fuel,
     (zlen (pre ++ (fx ++ cencs kids) ++ post) < 4611686018427387904)%Z -> (zlen ((fx ++ cencs kids) ++ post) + 1 < Z.of_nat fuel)%Z ->
     exists dri,
       fst (evte_sr ld fuel (mkH nm (8 + lenN (fx ++ cencs kids)) 8) 0 (mkS (mkR (pre ++ (fx ++ cencs kids) ++ post) (zlen pre) false) cst)) = Ok (dri, map erase kids) /\
       fst (evte_r ld fuel (mkH nm (8 + lenN (fx ++ cencs kids)) 8) 0 (mkI (pre ++ (fx ++ cencs kids) ++ post) (lenN pre) cst2)) = Ok (dri, map erase kids) /\
       evte_size (dri, map erase kids) = (8 + lenN (fx ++ cencs kids))%N) /\
  (forall ld, leaf_ok ld -> forall nm fx kids a,
     Forall (cwf ld) kids -> (lenN (fx ++ cencs kids) < 4294967288)%N ->
     run_xprog 0 (stpp_prog (Z.of_N (lenN (fx ++ cencs kids)))) (rnew (fx ++ cencs kids)) = Ok (a, mkR (fx ++ cencs kids) (zlen fx) false) ->
     forall pre post cst cst2 fuel,
     (zlen (pre ++ (fx ++ cencs kids) ++ post) < 4611686018427387904)%Z -> (zlen ((fx ++ cencs kids) ++ post) + 1 < Z.of_nat fuel)%Z ->
     fst (stpp_sr ld fuel (mkH nm (8 + lenN (fx ++ cencs kids)) 8) 0 (mkS (mkR (pre ++ (fx ++ cencs kids) ++ post) (zlen pre) false) cst)) = Ok (a, map erase kids) /\
     fst (stpp_r ld fuel (mkH nm (8 + lenN (fx ++ cencs kids)) 8) 0 (mkI (pre ++ (fx ++ cencs kids) ++ post) (lenN pre) cst2)) = Ok (a, map erase kids) /\
     sum_sizes (map erase kids) (8 + lenN fx) = (8 + lenN (fx ++ cencs kids))%N) /\
  (forall plen, local_xprog (evte_prog plen) /\ local_xprog (stpp_prog plen)).
Proof.
  split; [|split; [|exact (fun plen => conj (evte_prog_local plen) (stpp_prog_local plen))]].
  - intros ld LD nm fx kids Hfx HW Hfit pre post cst cst2 fuel Hs Hf. rewrite ir_at_mid.
    apply (evte_pair_window ld LD nm fx kids Hfx HW Hfit); [apply window_mid|exact Hs|rewrite !zlen_app in *; lia].
  - intros ld LD nm fx kids a HW Hfit F0 pre post cst cst2 fuel Hs Hf. rewrite ir_at_mid.
    apply (xentry_pair_window ld LD stpp_prog stpp_prog_local nm fx kids a HW Hfit F0); [apply window_mid|exact Hs|rewrite !zlen_app in *; lia].
Qed.
Print Assumptions C03_xentry_pairs_agree_canonical.

(* meta (DecodeMeta: readBoxBody + private reader / DecodeMetaSR: `sr.LookAhead(4, 4 bytes)` when the payload has 8 bytes or more; "hdlr" there means
   a QuickTime atom - children at once -, anything else the ISO form - version/flags word, then children).  ISO: canonical children whose first
   four bytes (the size field of the first child) do not spell "hdlr"; QuickTime: canonical children, the first one named hdlr.  In both
   forms, wherever the box sits and whatever follows, LookAhead sees the same bytes on both readers and both decoders accept with the same
   value; Size() = 8 + len payload *)
Theorem C03_meta_pair_agree_canonical : forall ld, leaf_ok ld -> forall nm kids, Forall (cwf ld) kids ->
  (forall vf, (vf < 4294967296)%N -> (lenN (be4 vf ++ cencs kids) < 4294967288)%N ->
     eqb_name (firstn 4 (cencs kids)) name_hdlr = false ->
     forall pre post cst cst2 fuel,
     (zlen (pre ++ (be4 vf ++ cencs kids) ++ post) < two63)%Z -> (zlen (pre ++ (be4 vf ++ cencs kids) ++ post) - zlen pre < Z.of_nat fuel)%Z ->
     let v := mkMeta false (vf / 16777216) (N.land vf flags_mask) (map erase kids) in
     let h := mkH nm (8 + lenN (be4 vf ++ cencs kids)) 8 in
     fst (meta_sr ld fuel h 0 (mkS (mkR (pre ++ (be4 vf ++ cencs kids) ++ post) (zlen pre) false) cst)) = Ok v /\
     fst (meta_r ld fuel h 0 (mkI (pre ++ (be4 vf ++ cencs kids) ++ post) (lenN pre) cst2)) = Ok v /\
     meta_size v = (8 + lenN (be4 vf ++ cencs kids))%N) /\
  ((lenN (cencs kids) < 4294967288)%N -> eqb_name (firstn 4 (skipn 4 (cencs kids))) name_hdlr = true ->
     forall pre post cst cst2 fuel,
     (zlen (pre ++ cencs kids ++ post) < two63)%Z -> (zlen (pre ++ cencs kids ++ post) - zlen pre + 1 < Z.of_nat fuel)%Z ->
     let v := mkMeta true 0 0 (map erase kids) in
     let h := mkH nm (8 + lenN (cencs kids)) 8 in
     fst (meta_sr ld fuel h 0 (mkS (mkR (pre ++ cencs kids ++ post) (zlen pre) false) cst)) = Ok v /\
     fst (meta_r ld fuel h 0 (mkI (pre ++ cencs kids ++ post) (lenN pre) cst2)) = Ok v /\
     meta_size v = (8 + lenN (cencs kids))%N).
Proof.
  intros ld LD nm kids HW. split.
  - intros vf Hvf Hfit Hnq pre post cst cst2 fuel Hs Hf. rewrite ir_at_mid.
    apply (meta_iso_pair_window ld LD nm kids HW vf Hvf Hfit Hnq); [apply window_mid|exact Hs|exact Hf].
  - intros Hfit Hq pre post cst cst2 fuel Hs Hf. rewrite ir_at_mid.
    apply (meta_qt_pair_window ld LD nm kids HW Hfit Hq); [apply window_mid|exact Hs|exact Hf].
Qed.
Print Assumptions C03_meta_pair_agree_canonical.

(* the encoder pairs DrefBox, TrepBox, WvttBox, AudioSampleEntryBox: header, fixed bytes, every child - Encode = EncodeSW given children
   that agree, and the box is then an agreeing leaf of C03_box_encode_agree / C03_encode_agree *)
Theorem C03_pfx_enc_agree : forall nm size fixed kids, agree_list kids = true ->
  pfx_enc_w nm size fixed kids = pfx_enc_sw nm size fixed kids /\
  agree (ELeaf (pfx_enc_w nm size fixed kids) (pfx_enc_sw nm size fixed kids)) = true.
Proof. exact (fun nm s f k H => hdr_kids_enc_agree nm s k (fun hd rest => hd ++ f ++ rest) H). Qed.
Print Assumptions C03_pfx_enc_agree.

(* HvcCBox / Av1CBox (class ETwinDeleg: the same text twice, a header and ONE inner Encode / EncodeSW of a concrete type whose Encode is
   the delegation pattern - hevc.DecConfRec, av1.CodecConfRec): equal bytes provided the record's Size() covers what its EncodeSW writes *)
Theorem C03_confrec_enc_agree : forall hdr isize cap out,
  (forall bs, out = Some bs -> (N.of_nat (length bs) <= isize)%N /\ (N.of_nat (length bs) <= cap)%N) ->
  confrec_enc_w hdr isize out = confrec_enc_sw hdr cap out.
Proof. exact confrec_enc_agree. Qed.
Print Assumptions C03_confrec_enc_agree.

(* ---- non-vacuity ---- *)
Example ex_tree : ebox :=
  ECont [109;111;111;102]%N 24 [ECont [116;114;97;102]%N 8 []; ELeaf (Ok [0;0;0;8;102;114;101;101]%N) (Ok [0;0;0;8;102;114;101;101]%N)].
Example ex_tree_agree : agree ex_tree = true.
Proof. reflexivity. Qed.
Example ex_tree_bytes : enc_w ex_tree = Ok [0;0;0;24;109;111;111;102; 0;0;0;8;116;114;97;102; 0;0;0;8;102;114;101;101]%N.
Proof. vm_compute. reflexivity. Qed.
Example ex_registry_nonempty : (100 <? length keys_decoders)%nat = true.
Proof. vm_compute. reflexivity. Qed.
Example ex_file_agree :
  decode_file_sr (mkO true false false false) [(TStyp, 20); (TMoof [mkTraf true None None [TrunOffset]], 68); (TMdat 4, 12)]
  = Ok (mkF false None None None [] None false
            [mkSeg true 0 [mkFrag (Some [mkTraf true None None [TrunOffset]]) true
                                  [FCMdat; FCMoof [mkTraf true None None [TrunOffset]]] 20] 0]
            [TMdat 4; TMoof [mkTraf true None None [TrunOffset]]; TStyp] true).
Proof. vm_compute. reflexivity. Qed.

Example ex_ctree : ctree := CNode name_moof [CNode name_traf []; CLeaf name_free [7]%N; CLarge name_mdat [9;8]%N; CLeaf name_mdat [1;2;3]%N].
Example ex_ctree_fits : fits ex_ctree.
Proof. unfold fits. vm_compute. reflexivity. Qed.
Example ex_ctree_wf : cwf std_leaves ex_ctree.
Proof.
  assert (L : forall nm p, length nm = 4%nat -> std_kind nm = KLeaf -> (lenN p < 100)%N -> cwf std_leaves (CLeaf nm p)).
  { intros nm p H1 H2 H3. split; [exact H1|]. apply std_canon_leaf. split; [exact H1|]. split; [exact H2|].
    split; [lia|]. intros _. unfold max_normal_payload. lia. }
  cbn [cwf ex_ctree]. split; [reflexivity|]. split; [reflexivity|].
  split. { split; [reflexivity|]. split; [reflexivity|exact I]. }
  split. { apply L; reflexivity. }
  split. { split; [reflexivity|]. apply std_canon_large. split; [reflexivity|]. split; [reflexivity|]. split; reflexivity. }
  split. { apply L; reflexivity. }
  exact I.
Qed.
Example ex_ctree_bytes : cenc ex_ctree =
  [0;0;0;54;109;111;111;102; 0;0;0;8;116;114;97;102; 0;0;0;9;102;114;101;101;7;
   0;0;0;1;109;100;97;116;0;0;0;0;0;0;0;18;9;8; 0;0;0;11;109;100;97;116;1;2;3]%N.
Proof. vm_compute. reflexivity. Qed.
(* a progressive file: free, mdat behind a largesize header, free: both byte-level file loops give sizes 9, 18, 8 *)
Example ex_large_file : fst (file_sr std_leaves (cencs [CLeaf name_free [7]%N; CLarge name_mdat [9;8]%N; CLeaf name_free []]))
  = Ok [Leaf name_free 9; Leaf name_mdat 18; Leaf name_free 8]
  /\ fst (file_r std_leaves (cencs [CLeaf name_free [7]%N; CLarge name_mdat [9;8]%N; CLeaf name_free []]))
  = Ok [Leaf name_free 9; Leaf name_mdat 18; Leaf name_free 8].
Proof. split; vm_compute; reflexivity. Qed.

(* a trun box (flags 0x301: data offset, duration, size; 2 samples) followed by junk: accepted by both model decoders *)
Example ex_trun_body : list N := [0;0;3;1; 0;0;0;2; 0;0;0;100; 0;0;4;0; 0;0;0;9; 0;0;4;0; 0;0;0;7]%N.
Example ex_trun_box : leafbox_r (framed name_trun ex_trun_body [1;2;3]%N)
  = Ok (LTrun (mkTrun 0 769 100 0 [mkTS 0 1024 9 0; mkTS 0 1024 7 0]), 36).
Proof. vm_compute. reflexivity. Qed.
Example ex_trun_box_sr : leafbox_sr (framed name_trun ex_trun_body [1;2;3]%N)
  = Ok (LTrun (mkTrun 0 769 100 0 [mkTS 0 1024 9 0; mkTS 0 1024 7 0]), 36%Z, false).
Proof. vm_compute. reflexivity. Qed.
Example ex_senc_box : leafbox_r (framed name_senc [0;0;0;2; 0;0;0;1; 0;1; 0;5;0;0;0;9]%N [])
  = Ok (LSenc (mkSenc 0 2 1 [0;1; 0;5;0;0;0;9]%N 24 true), 24).
Proof. vm_compute. reflexivity. Qed.

(* a fragment: moof{traf{trun, senc}} followed by an mdat behind a 16-byte header, leaves decoded by the pair models *)
Example ex_senc_body : list N := [0;0;0;2; 0;0;0;1; 0;1; 0;5;0;0;0;9]%N.
Example ex_frag : list ctree :=
  [CNode name_moof [CNode name_traf [CLeaf name_trun ex_trun_body; CLeaf name_senc ex_senc_body]]; CLarge name_mdat [1;2;3;4]%N].
Example ex_frag_wf : Forall (cwf pair_leaves) ex_frag.
Proof.
  constructor; [|constructor; [|constructor]].
  - cbn [cwf]. split; [reflexivity|]. split; [reflexivity|]. split; [|exact I].
    split; [reflexivity|]. split; [reflexivity|]. split; [|split; [|exact I]].
    + split; [reflexivity|]. eapply pair_canon_trun; [vm_compute; reflexivity|vm_compute; reflexivity].
    + split; [reflexivity|]. eapply pair_canon_senc; [vm_compute; split; [discriminate|reflexivity]|vm_compute; reflexivity].
  - cbn [cwf]. split; [reflexivity|]. apply pair_canon_large_mdat. vm_compute. reflexivity.
Qed.
Example ex_frag_trees : map erase ex_frag = [Node name_moof [Node name_traf [Leaf name_trun 36; Leaf name_senc 24]]; Leaf name_mdat 20].
Proof. vm_compute. reflexivity. Qed.

(* an stsd with two entries (unknown sample entry types carried as opaque canonical leaves) decodes to the same value on both paths *)
Example ex_stsd_kids : list ctree := [CLeaf [122;122;122;122]%N [1;2;3]%N; CLeaf [97;98;99;100]%N []].
Example ex_stsd_wf : Forall (cwf pair_leaves) ex_stsd_kids.
Proof.
  constructor; [|constructor; [|constructor]]; (split; [reflexivity|]); apply pair_canon_std; try reflexivity;
    (split; [reflexivity|]); (split; [reflexivity|]); (split; [vm_compute; reflexivity|]); intros H; discriminate H.
Qed.
Example ex_stsd_val : stsd_val 0 2 ex_stsd_kids = mkStsd 0 0 2 [Leaf [122;122;122;122]%N 11; Leaf [97;98;99;100]%N 8].
Proof. vm_compute. reflexivity. Qed.

(* an avc1 entry: 78 fixed bytes (compressor name "ab"), one child: both model decoders, concretely *)
Example ex_vse_fixed : list N := repeat 0%N 6 ++ [0;1]%N ++ repeat 0%N 16 ++ [1;64; 0;240; 0;72;0;0; 0;72;0;0; 0;0;0;0; 0;1]%N ++ [2]%N
  ++ [97;98]%N ++ repeat 0%N 29 ++ [0;24; 255;255]%N.
Example ex_vse_len : length ex_vse_fixed = 78%nat.
Proof. reflexivity. Qed.
Example ex_vse_box : entbox_sr (be4 (8 + 78 + 9) ++ name_avc1 ++ ex_vse_fixed ++ cenc (CLeaf name_free [5]%N))
  = Ok (EVse (mkVse 1 320 240 4718592 4718592 1 [97;98]%N [Leaf name_free 9]), 95%Z, false).
Proof. vm_compute. reflexivity. Qed.
Example ex_vse_box_r : entbox_r (be4 (8 + 78 + 9) ++ name_avc1 ++ ex_vse_fixed ++ cenc (CLeaf name_free [5]%N))
  = Ok (EVse (mkVse 1 320 240 4718592 4718592 1 [97;98]%N [Leaf name_free 9]), 95%N).
Proof. vm_compute. reflexivity. Qed.

(* MdatBox with LargeSize: the 16-byte header is kept by both encoders *)
Example ex_mdat_enc : mdat_enc_w (mkMdat [9;8]%N true) = Ok [0;0;0;1;109;100;97;116;0;0;0;0;0;0;0;18;9;8]%N
  /\ mdat_enc_sw (mkMdat [9;8]%N true) = Ok [0;0;0;1;109;100;97;116;0;0;0;0;0;0;0;18;9;8]%N.
Proof. split; vm_compute; reflexivity. Qed.

(* a tfdt-like decoder (version/flags, then a 64-bit or 32-bit time depending on the version) is a local program ... *)
Example ex_prog : sprog N :=
  SOp RU32 (fun vf => match vf with
                      | VN x => if (x / 16777216 =? 1)%N then SOp RU64 (fun t => match t with VN y => SRet y | _ => SFail end)
                                else SOp RU32 (fun t => match t with VN y => SRet y | _ => SFail end)
                      | _ => SFail end).
Example ex_prog_local : local_prog ex_prog.
Proof.
  split; [reflexivity|]. intros [x|z|l|l o|r|b0|]; try exact I. destruct (x / 16777216 =? 1)%N; (split; [reflexivity|]); intros [y|z|l|l o|r|b0|]; exact I.
Qed.
Example ex_prog_run : run_sprog ex_prog (rnew [1;0;0;0; 0;0;0;0;0;0;1;0]%N) = Ok (256%N, mkR [1;0;0;0; 0;0;0;0;0;0;1;0]%N 12 false).
Proof. vm_compute. reflexivity. Qed.
(* ... and a decoder built on RemainingBytes (the pinned DecodeColrSR) is not: on the caller's reader it swallows the sibling *)
Example ex_nonlocal : run_sprog (SOp RRemaining (fun v => SRet v)) (rnew [1;2]%N) = Ok (VBytes [1;2]%N, mkR [1;2]%N 2 false)
  /\ run_sprog (SOp RRemaining (fun v => SRet v)) (mkR [9;1;2;7]%N 1 false) = Ok (VBytes [1;2;7]%N, mkR [9;1;2;7]%N 4 false).
Proof. split; vm_compute; reflexivity. Qed.

(* tfhd with base-data-offset, default duration and default flags; tfdt version 1: the private runs end without error *)
Example ex_tfhd_run : run_sprog tfhd_prog (rnew [0;0;0;41; 0;0;0;1; 0;0;0;0;0;0;1;0; 0;0;4;0; 1;1;0;0]%N)
  = Ok ([0; 41; 1; 256; 0; 1024; 0; 16842752]%N, mkR [0;0;0;41; 0;0;0;1; 0;0;0;0;0;0;1;0; 0;0;4;0; 1;1;0;0]%N 24 false).
Proof. vm_compute. reflexivity. Qed.
Example ex_tfdt_run : run_sprog tfdt_prog_sr (rnew [1;0;0;0; 0;0;0;1;0;0;0;0]%N)
  = Ok ([1; 0; 4294967296]%N, mkR [1;0;0;0; 0;0;0;1;0;0;0;0]%N 12 false).
Proof. vm_compute. reflexivity. Qed.

(* a kind-like decoder: version/flags, two zero-terminated strings whose maximal lengths are computed from the payload length and
   the position relative to the entry (clamped outside [0, 2^62), see local_xprog) is a local extended program ... *)
Example ex_xprog (plen : Z) : xprog (list N * list N) :=
  XOp RU32 (fun _ =>
    XOp (RZStr (if ((0 <=? plen) && (plen <? 2305843009213693952))%bool%Z then plen - 5 else 0)%Z) (fun a =>
      XRelPos (fun z => if ((0 <=? z) && (z <? 4611686018427387904))%bool%Z then
        XOp (RZStr (if ((0 <=? plen) && (plen <? 2305843009213693952))%bool%Z then plen - z else 0)%Z) (fun b =>
          match a, b with VBytes x, VBytes y => XRet (x, y) | _, _ => XFail end)
        else XFail))).
Example ex_xprog_local : forall plen, local_xprog (ex_xprog plen).
Proof.
  intros plen. split; [reflexivity|]. intros _. split.
  { cbn [local_xop]. unfold is_int, two63. destruct ((0 <=? plen) && (plen <? 2305843009213693952))%bool%Z eqn:E; lia. }
  intros a z. destruct ((0 <=? z) && (z <? 4611686018427387904))%bool%Z eqn:Ez; [|exact I]. split.
  { cbn [local_xop]. unfold is_int, two63. destruct ((0 <=? plen) && (plen <? 2305843009213693952))%bool%Z eqn:E; lia. }
  intros b. destruct a, b; exact I.
Qed.
Example ex_xprog_run : run_xprog 0 (ex_xprog 10) (rnew [0;0;0;0; 97;98;0; 99;100;0]%N)
  = Ok (([97;98], [99;100])%N, mkR [0;0;0;0; 97;98;0; 99;100;0]%N 10 false).
Proof. vm_compute. reflexivity. Qed.
(* ... the same decoder on the caller's reader, the body at offset 2 and a sibling after it *)
Example ex_xprog_run_framed : run_xprog 2 (ex_xprog 10) (mkR [7;7; 0;0;0;0; 97;98;0; 99;100;0; 5;5;5]%N 2 false)
  = Ok (([97;98], [99;100])%N, mkR [7;7; 0;0;0;0; 97;98;0; 99;100;0; 5;5;5]%N 12 false).
Proof. vm_compute. reflexivity. Qed.
(* the table is not trivially satisfied: at least 60 box types are covered by the delegation theorem, and some are not *)
Example ex_facts_nontrivial : (60 <=? count_cov CovDelegateSound c03_decoder_facts)%nat = true
  /\ (15 <=? count_cov CovFraming c03_decoder_facts)%nat = true /\ (1 <=? count_cov CovExplored c03_decoder_facts)%nat = true
  /\ existsb (fun f => negb (dec_ok (mkdec (df_key f) (df_s f) (df_s f) CSeparate false (df_relative f)))) c03_decoder_facts = true.
Proof. vm_compute. repeat split; reflexivity. Qed.

(* ftyp, moov{trak 1 clear, trak 2 encrypted (tenc IV 8)}, moof{traf 1: unparsed senc, traf 2: unparsed senc}, mdat: one segment, one
   fragment; the clear traf's senc stays as read, the encrypted one's is parsed (1 IV) - by both loops *)
Example ex_file_senc :
  decode_file_xsr (mkO true false false false)
    [mkXTop TFtyp 24 [] []; mkXTop (TMoov (MoovChain 5 0)) 600 brk_moov []; mkXTop (TMoof []) 200 [] brk_trafs; mkXTop (TMdat 8) 16 [] []]
  = Ok (mkF true (Some (MoovChain 5 0)) None (Some [ICFtyp; ICMoov]) [] None false
            [mkSeg false 0 [mkFrag (Some []) true [FCMdat; FCMoof []] 624] 624]
            [TMdat 8; TMoof []; TMoov (MoovChain 5 0); TFtyp] true,
        [[None; Some (1, 0, 8)]]).
Proof. vm_compute. reflexivity. Qed.

(* a segment-mode File with optimisation on: Encode, Size, EncodeSW, Info - three non-trivial outcomes, the same whichever encoder runs *)
Example ex_hist : same_history [HEncode; HSize; HEncodeSW; HInfo] [HEncodeSW; HSize; HEncode; HInfo] (S := C02AggModel.afile).
Proof. reflexivity. Qed.
Example ex_hist_run :
  map (fun o => match o with C02AggModel.OutBytes b => lenN (concat b) | C02AggModel.OutSize n => n | _ => 0 end)
      (fst (run_hhist hfile_agg C02AggExamples.ex_file [HEncode; HSize; HEncodeSW; HInfo])) = [313; 313; 313; 0].
Proof. vm_compute. reflexivity. Qed.

(* a dref with one (unknown-type) entry and an mp4a entry with one child, concretely through both model decoders *)
Example ex_dref_box : pfxbox_sr (be4 28 ++ name_dref ++ be4 0 ++ be4 1 ++ cenc (CLeaf [122;122;122;122]%N [1;2;3;4]%N))
  = Ok (PCnt (mkStsd 0 0 1 [Leaf [122;122;122;122]%N 12]), 28%Z, false)
  /\ pfxbox_r (be4 28 ++ name_dref ++ be4 0 ++ be4 1 ++ cenc (CLeaf [122;122;122;122]%N [1;2;3;4]%N))
  = Ok (PCnt (mkStsd 0 0 1 [Leaf [122;122;122;122]%N 12]), 28%N).
Proof. split; vm_compute; reflexivity. Qed.
Example ex_ase_box : pfxbox_r (be4 45 ++ [109;112;52;97]%N ++ ase_fixed 1 2 16 48000 ++ cenc (CLeaf name_free [5]%N))
  = Ok (PAse (mkAse 1 2 16 48000, [Leaf name_free 9]), 45%N).
Proof. vm_compute. reflexivity. Qed.

(* an stpp payload: namespace "ns", schema location "a", auxiliary mime types "" - the hypothesis of the stpp theorem holds:
   the prefix ends without error behind the 14 fixed bytes *)
Example ex_stpp_fx : list N := [0;0;0;0;0;0; 0;1; 110;115;0; 97;0; 0]%N.
Example ex_stpp_prefix :
  run_xprog 0 (stpp_prog (Z.of_N (lenN (ex_stpp_fx ++ cencs [CLeaf name_free [5]%N])))) (rnew (ex_stpp_fx ++ cencs [CLeaf name_free [5]%N]))
  = Ok (mkStpp 1 [110;115]%N [97]%N [] 0, mkR (ex_stpp_fx ++ cencs [CLeaf name_free [5]%N]) (zlen ex_stpp_fx) false).
Proof. vm_compute. reflexivity. Qed.
Example ex_stpp_box : pfxbox_sr (be4 31 ++ name_stpp ++ ex_stpp_fx ++ cenc (CLeaf name_free [5]%N))
  = Ok (PStpp (mkStpp 1 [110;115]%N [97]%N [] 0, [Leaf name_free 9]), 31%Z, false).
Proof. vm_compute. reflexivity. Qed.

(* a QuickTime meta atom: the payload starts with a box named hdlr (here an opaque canonical leaf of that name) *)
Example ex_meta_qt : metabox_sr (be4 21 ++ name_meta ++ cenc (CLeaf name_hdlr [1;2;3;4;5]%N))
  = Ok (mkMeta true 0 0 [Leaf name_hdlr 13], 21%Z, false).
Proof. vm_compute. reflexivity. Qed.

(* ------------------------------------------------------------------ sgpd: the SR decoder behind the table sgeDecoders *)
From V.c03 Require Import C03SgpdModel C03SgpdProofs.
(* DecodeSgpd is the delegation pattern; DecodeSgpdSR = sgpd_prog (C03SgpdModel.v: header fields, `for i < entryCount`, the entry decoders
   seig / roll / "rap " / unknown with their own length tests and `return e, sr.AccError()`; alst is NOT in the model, see there) is a local
   reader program for EVERY entry count.  Hence, for every body on which the private run of the reader path accepts: the reader path returns
   that value, and the SR decoder - the body sitting anywhere in the caller's buffer, any bytes before and after it - returns the same value,
   stops exactly at the end of what the private run read, and has no accumulated error.  Third conjunct: in terms of the reader path alone. *)
Theorem C03_sgpd_pair_agree :
  local_xprog sgpd_prog /\
  (forall body a s', run_xprog 0 sgpd_prog (rnew body) = Ok (a, s') -> rerr s' = false ->
     forall pre post, (zlen (pre ++ body ++ post) < 2305843009213693952)%Z ->
       xprog_body_r false true sgpd_prog body = Ok a /\
       xprog_sr false true sgpd_prog (mkR (pre ++ body ++ post) (zlen pre) false)
       = Ok (a, mkR (pre ++ body ++ post) (zlen pre + rpos s')%Z false)) /\
  (forall body a, xprog_body_r false true sgpd_prog body = Ok a ->
     forall pre post, (zlen (pre ++ body ++ post) < 2305843009213693952)%Z ->
       exists p', xprog_sr false true sgpd_prog (mkR (pre ++ body ++ post) (zlen pre) false)
                  = Ok (a, mkR (pre ++ body ++ post) p' false)).
Proof.
  split; [exact sgpd_prog_local|]. split.
  - intros body a s' E He pre post Hs. apply (sgpd_pair_agree body a s' E He); [apply window_mid|unfold two62; lia].
  - intros body a E pre post Hs. apply (sgpd_reader_accepts_sr_accepts body a E); [apply window_mid|unfold two62; lia].
Qed.
Print Assumptions C03_sgpd_pair_agree.

(* the loop combinator of sgpd_prog is n-fold iteration (a body that only counts reaches the continuation with the count increased by n) *)
Theorem C03_sgpd_loop_counts : forall A n (st : N) (k : N -> xprog A), iter_N n (fun s k' => k' (s + 1)) st k = k (st + n).
Proof. exact (@iter_N_counts). Qed.
Print Assumptions C03_sgpd_loop_counts.

(* the hypotheses are satisfiable: a version-1 seig sgpd (DefaultLength 20, one entry: 36 body bytes read, Size() = 8 + 36) and a version-1
   roll sgpd with per-entry lengths (two entries) run to a value without accumulated error *)
Example ex_sgpd_seig_ok : exists a s', run_xprog 0 sgpd_prog (rnew ex_sgpd_seig) = Ok (a, s') /\ rerr s' = false /\
  rpos s' = 36%Z /\ length (sg_entries a) = 1%nat /\ sgpd_size a = 8 + lenN ex_sgpd_seig.
Proof. exact ex_sgpd_seig_runs. Qed.
Example ex_sgpd_roll_ok : exists a s', run_xprog 0 sgpd_prog (rnew ex_sgpd_roll) = Ok (a, s') /\ rerr s' = false /\
  sg_entries a = [SgRoll (-1); SgRoll 5] /\ sg_lens a = [2; 2] /\ sgpd_size a = 8 + lenN ex_sgpd_roll.
Proof. exact ex_sgpd_roll_runs. Qed.
