(* C03CanonProofs.v — on every canonical byte string both decode paths accept and build the same tree. *)
From V.lib Require Import Base.
From V.c04 Require Import C04Model C04ReaderProofs C04ContainerProofs.
From V.c03 Require Import C03Model C03Spec.
Open Scope Z_scope.

(* ---------------------------------------------------------------- lists and bytes *)
Lemma zlen_app {A} (a b : list A) : zlen (a ++ b) = zlen a + zlen b.
Proof. unfold zlen. rewrite app_length. lia. Qed.
Lemma zlen_lenN {A} (l : list A) : zlen l = Z.of_N (lenN l).
Proof. unfold zlen, lenN. lia. Qed.
Lemma zlen_nonneg {A} (l : list A) : 0 <= zlen l.
Proof. unfold zlen. lia. Qed.

Lemma firstn_skipn_mid (pre x post : list N) :
  firstn (length x) (skipn (length pre) (pre ++ x ++ post)) = x.
Proof.
  rewrite skipn_app, skipn_all, Nat.sub_diag. cbn [skipn app].
  rewrite firstn_app, firstn_all, Nat.sub_diag. cbn [firstn]. apply app_nil_r.
Qed.

Lemma gslice_mid (pre x post : list N) :
  gslice (pre ++ x ++ post) (zlen pre) (zlen pre + zlen x) = Ok x.
Proof.
  unfold gslice. rewrite !zlen_app.
  pose proof (zlen_nonneg pre). pose proof (zlen_nonneg x). pose proof (zlen_nonneg post).
  replace ((0 <=? zlen pre) && (zlen pre <=? zlen pre + zlen x) && (zlen pre + zlen x <=? zlen pre + (zlen x + zlen post)))%bool
    with true by lia.
  f_equal. replace (zlen pre + zlen x - zlen pre) with (zlen x) by lia. unfold zlen. rewrite !Nat2Z.id.
  apply firstn_skipn_mid.
Qed.

Lemma be_app a : forall b acc, be (a ++ b) acc = be b (be a acc).
Proof. induction a as [|x a IH]; intros b acc; [reflexivity|apply IH]. Qed.

Lemma be4_len n : length (be4 n) = 4%nat.
Proof. reflexivity. Qed.

(* two base-b digits of x *)
Lemma two_digits b x : b <> 0%N -> ((x / b) mod b * b + x mod b = x mod (b * b))%N.
Proof. intros Hb. rewrite (N.mod_mul_r x b b) by exact Hb. rewrite N.mul_comm, N.add_comm. reflexivity. Qed.

(* two bytes make a 16-bit digit, two of those the 32-bit value (one lia over the four byte divisions is far dearer to check) *)
Lemma be_be4_acc n acc : be (be4 n) acc = (acc * 4294967296 + n mod 4294967296)%N.
Proof.
  unfold be4, be. change (n / 16777216)%N with (n / (65536 * 256))%N. rewrite <- (N.div_div n 65536 256) by discriminate.
  set (a := (n / 65536 / 256 mod 256)%N). set (b := (n / 65536 mod 256)%N). set (c := (n / 256 mod 256)%N). set (d := (n mod 256)%N).
  replace ((((acc * 256 + a) * 256 + b) * 256 + c) * 256 + d)%N with (acc * 4294967296 + ((a * 256 + b) * 65536 + (c * 256 + d)))%N by ring.
  subst a b c d. rewrite !(two_digits 256) by discriminate. f_equal. apply (two_digits 65536). discriminate.
Qed.

Lemma be_be4 n : (n < 4294967296)%N -> be (be4 n) 0 = n.
Proof. intros H. rewrite be_be4_acc. apply N.mod_small, H. Qed.

Lemma be8_len n : length (be8 n) = 8%nat.
Proof. reflexivity. Qed.

(* the 64-bit field is two 32-bit fields: one lia over all eight byte divisions takes minutes *)
Lemma be8_split n : be8 n = be4 (n / 4294967296) ++ be4 n.
Proof. unfold be4 at 1. rewrite !N.div_div by discriminate. reflexivity. Qed.

Lemma be_be8 n : (n < 18446744073709551616)%N -> be (be8 n) 0 = n.
Proof.
  intros H. rewrite be8_split, be_app, !be_be4_acc.
  rewrite (N.mod_small (n / 4294967296)) by (apply N.div_lt_upper_bound; [discriminate|exact H]).
  rewrite N.mul_comm. symmetry. apply N.div_mod. discriminate.
Qed.

(* uint64 arithmetic that does not wrap *)
Lemma addu64_small a b : (a + b < 18446744073709551616)%N -> addu64 a b = (a + b)%N.
Proof. intros H. apply N.mod_small, H. Qed.

Lemma subu64_small a b : (b <= a < 18446744073709551616)%N -> subu64 a b = (a - b)%N.
Proof.
  intros H. unfold subu64. rewrite (N.mod_small b) by lia.
  replace (a + 18446744073709551616 - b)%N with (a - b + 1 * 18446744073709551616)%N by lia.
  rewrite N.mod_add by discriminate. apply N.mod_small. lia.
Qed.

(* hdr.payloadLen() of a header that announces n bytes behind itself *)
Lemma payload_len_eq nm hl n : (hl + n < 9223372036854775808)%N -> payload_len (mkH nm (hl + n) hl) = Z.of_N n.
Proof.
  intros H. unfold payload_len, int_of_u64. cbn [hsize hlen].
  rewrite (w64_id (Z.of_N (hl + n))) by (unfold two63; lia). rewrite w64_id by (unfold two63; lia). lia.
Qed.

(* ---------------------------------------------------------------- a reader standing before x *)
(* [window buf p x]: the buffer holds x from position p on.  Everything below is stated for a window, so that a decoder
   that reads x1, then x2, ... is followed by splitting the window of x1 ++ x2 ++ ..., not by re-associating pre ++ x ++ post
   at every step. *)
Definition window (buf : list N) (p : Z) (x : list N) : Prop :=
  exists pre post, buf = pre ++ x ++ post /\ p = zlen pre.

Lemma window_mid pre x post : window (pre ++ x ++ post) (zlen pre) x.
Proof. exists pre, post. split; reflexivity. Qed.

Lemma window_all x : window x 0 x.
Proof. exists [], []. rewrite app_nil_r. split; reflexivity. Qed.

Lemma window_app buf p x y : window buf p (x ++ y) -> window buf p x /\ window buf (p + zlen x) y.
Proof.
  intros (pre & post & -> & ->). split.
  - exists pre, (y ++ post). rewrite <- app_assoc. split; reflexivity.
  - exists (pre ++ x), post. rewrite zlen_app, <- !app_assoc. split; reflexivity.
Qed.

Lemma window_range buf p x : window buf p x -> 0 <= p /\ p + zlen x <= zlen buf.
Proof.
  intros (pre & post & -> & ->). rewrite !zlen_app.
  pose proof (zlen_nonneg pre). pose proof (zlen_nonneg post). lia.
Qed.

Lemma window_gslice buf p x : window buf p x -> gslice buf p (p + zlen x) = Ok x.
Proof. intros (pre & post & -> & ->). apply gslice_mid. Qed.

(* the SliceReader reads *)
Lemma read_fixed_window k buf p x : window buf p x -> zlen x = k ->
  read_fixed k (mkR buf p false) = Ok (be x 0, mkR buf (p + k) false).
Proof.
  intros W <-. destruct (window_range _ _ _ W). unfold read_fixed, rlen. cbn [rerr rpos rbuf].
  replace (p >? zlen buf - zlen x) with false by lia. rewrite (window_gslice _ _ _ W). reflexivity.
Qed.

Lemma read_fixed_string_window k buf p x : window buf p x -> zlen x = k -> zlen buf < two63 ->
  read_fixed_string k (mkR buf p false) = Ok (x, mkR buf (p + k) false).
Proof.
  intros W <- Hs. destruct (window_range _ _ _ W). pose proof (zlen_nonneg x).
  unfold read_fixed_string, rlen. cbn [rerr rpos rbuf].
  rewrite !w64_id by (unfold two63 in *; lia).
  replace (p >? zlen buf - zlen x) with false by lia. rewrite (window_gslice _ _ _ W). reflexivity.
Qed.

Lemma read_bytes_window buf p x : window buf p x ->
  read_bytes (zlen x) (mkR buf p false) = Ok (x, mkR buf (p + zlen x) false).
Proof.
  intros W. destruct (window_range _ _ _ W). pose proof (zlen_nonneg x).
  unfold read_bytes, rlen. cbn [rerr rpos rbuf]. replace (zlen x <? 0) with false by lia.
  replace (p >? zlen buf - zlen x) with false by lia. rewrite (window_gslice _ _ _ W). reflexivity.
Qed.

(* the same reads at an offset i inside x: [sub x i k] is x[i : i+k] *)
Definition sub (x : list N) (i k : Z) : list N := firstn (Z.to_nat k) (skipn (Z.to_nat i) x).

Lemma window_sub buf q x i k : window buf q x -> 0 <= i -> 0 <= k -> i + k <= zlen x ->
  window buf (q + i) (sub x i k) /\ zlen (sub x i k) = k.
Proof.
  intros (pre & post & -> & ->) Hi Hk Hl. unfold sub.
  set (a := firstn (Z.to_nat i) x). set (r := skipn (Z.to_nat k) (skipn (Z.to_nat i) x)).
  assert (La : zlen a = i) by (unfold a, zlen in *; rewrite firstn_length; lia).
  split; [|unfold zlen in *; rewrite firstn_length, skipn_length; lia].
  exists (pre ++ a), (r ++ post). rewrite zlen_app, La. split; [|reflexivity].
  rewrite <- (firstn_skipn (Z.to_nat i) x) at 1. rewrite <- (firstn_skipn (Z.to_nat k) (skipn (Z.to_nat i) x)) at 1.
  rewrite <- !app_assoc. reflexivity.
Qed.

Lemma gslice_sub b lo hi : 0 <= lo <= hi -> hi <= zlen b -> gslice b lo hi = Ok (sub b lo (hi - lo)).
Proof.
  intros H1 H2. destruct (window_sub b 0 b lo (hi - lo) (window_all b)) as [W L]; try lia.
  apply window_gslice in W. rewrite L in W. replace (0 + lo + (hi - lo)) with hi in W by lia. exact W.
Qed.

Lemma read_fixed_at k buf q x i : window buf q x -> 0 <= i -> 0 <= k -> i + k <= zlen x ->
  read_fixed k (mkR buf (q + i) false) = Ok (be (sub x i k) 0, mkR buf (q + (i + k)) false).
Proof.
  intros W Hi Hk Hl. destruct (window_sub _ _ _ i k W Hi Hk Hl) as [W' L].
  rewrite (read_fixed_window k _ _ _ W' L), Z.add_assoc. reflexivity.
Qed.

Lemma read_fixed_string_at k buf q x i : window buf q x -> 0 <= i -> 0 <= k -> i + k <= zlen x -> zlen buf < two63 ->
  read_fixed_string k (mkR buf (q + i) false) = Ok (sub x i k, mkR buf (q + (i + k)) false).
Proof.
  intros W Hi Hk Hl Hs. destruct (window_sub _ _ _ i k W Hi Hk Hl) as [W' L].
  rewrite (read_fixed_string_window k _ _ _ W' L Hs), Z.add_assoc. reflexivity.
Qed.

Lemma read_bytes_at n buf q x i : window buf q x -> 0 <= i -> 0 <= n -> i + n <= zlen x ->
  read_bytes n (mkR buf (q + i) false) = Ok (sub x i n, mkR buf (q + (i + n)) false).
Proof.
  intros W Hi Hn Hl. destruct (window_sub _ _ _ i n W Hi Hn Hl) as [W' L].
  pose proof (read_bytes_window _ _ _ W') as P. rewrite L in P. rewrite P, Z.add_assoc. reflexivity.
Qed.

Lemma skip_bytes_at n buf q x i : window buf q x -> 0 <= i -> 0 <= n -> i + n <= zlen x -> zlen buf < two63 ->
  skip_bytes n (mkR buf (q + i) false) = mkR buf (q + (i + n)) false.
Proof.
  intros W Hi Hn Hl Hs. destruct (window_range _ _ _ W). unfold skip_bytes, rlen, with_pos. cbn [rerr rpos rbuf].
  rewrite w64_id by (unfold two63 in *; lia). replace (q + i + n >? zlen buf) with false by lia.
  rewrite Z.add_assoc. reflexivity.
Qed.

(* the io.Reader over the same buffer, at the same position *)
Definition ir_at (buf : list N) (p : Z) (cst : cost) : ist := mkI buf (Z.to_N p) cst.

Lemma read_full_window k buf p x cst : window buf p x -> lenN x = k -> (0 < k)%N ->
  read_full k (ir_at buf p cst) = (RFOk x, ir_at buf (p + zlen x) cst).
Proof.
  intros (pre & post & -> & ->) <- Hk. unfold read_full, iavail, ir_at. cbn [ibuf ipos icost].
  assert (A : (lenN (pre ++ x ++ post) - Z.to_N (zlen pre) = lenN x + lenN post)%N) by (rewrite !lenN_app; unfold zlen, lenN; lia).
  rewrite A. replace (lenN x + lenN post =? 0)%N with false by lia. replace (lenN x + lenN post <? lenN x)%N with false by lia.
  f_equal; [f_equal|f_equal; unfold zlen, lenN; lia].
  replace (N.to_nat (lenN x)) with (length x) by (unfold lenN; lia).
  replace (N.to_nat (Z.to_N (zlen pre))) with (length pre) by (unfold zlen; lia). apply firstn_skipn_mid.
Qed.

Lemma read_limited_window buf p x cst : window buf p x ->
  read_limited (zlen x) (ir_at buf p cst)
  = (x, ir_at buf (p + zlen x) (if zlen x <=? 0 then cst else allocn (lenN x) cst)).
Proof.
  intros (pre & post & -> & ->). unfold read_limited. destruct (zlen x <=? 0) eqn:E.
  - assert (x = []) by (destruct x; [reflexivity|unfold zlen in E; cbn in E; lia]). subst x.
    change (zlen (@nil N)) with 0. rewrite Z.add_0_r. reflexivity.
  - unfold iavail, ir_at. cbn [ibuf ipos icost]. rewrite !lenN_app.
    replace (N.min (Z.to_N (zlen x)) (lenN pre + (lenN x + lenN post) - Z.to_N (zlen pre))) with (lenN x)
      by (unfold zlen, lenN; lia).
    f_equal; [|f_equal; unfold zlen, lenN; lia].
    replace (N.to_nat (lenN x)) with (length x) by (unfold lenN; lia).
    replace (N.to_nat (Z.to_N (zlen pre))) with (length pre) by (unfold zlen; lia). apply firstn_skipn_mid.
Qed.

(* readBoxBody behind a header that announces the bytes of x *)
Lemma read_box_body_window nm hl buf p x cst : window buf p x -> (hl + lenN x < 9223372036854775808)%N ->
  exists cst', read_box_body (mkH nm (hl + lenN x) hl) (ir_at buf p cst) = (Ok x, ir_at buf (p + zlen x) cst').
Proof.
  intros W Hl. unfold read_box_body. cbn [hsize hlen].
  destruct (hl =? hl + lenN x)%N eqn:E0.
  - assert (x = []) by (destruct x; [reflexivity|rewrite lenN_cons in E0; lia]). subst x.
    exists cst. change (zlen (@nil N)) with 0. rewrite Z.add_0_r. reflexivity.
  - rewrite subu64_small by lia. replace (hl + lenN x - hl)%N with (lenN x) by lia.
    unfold int_of_u64. rewrite w64_id by (unfold two63; lia). rewrite <- zlen_lenN.
    rewrite (read_limited_window _ _ _ _ W), Z.eqb_refl. eexists. reflexivity.
Qed.

(* with the buffer written as pre ++ x ++ post *)
Lemma ir_at_mid pre (x post : list N) cst : mkI (pre ++ x ++ post) (lenN pre) cst = ir_at (pre ++ x ++ post) (zlen pre) cst.
Proof. unfold ir_at. f_equal. unfold zlen, lenN. lia. Qed.

Lemma ir_at_mid_end pre (x post : list N) cst :
  mkI (pre ++ x ++ post) (lenN pre + lenN x) cst = ir_at (pre ++ x ++ post) (zlen pre + zlen x) cst.
Proof. unfold ir_at. f_equal. unfold zlen, lenN. lia. Qed.

Lemma read_box_body_mid nm hl body pre post cst : (hl + lenN body < 9223372036854775808)%N ->
  exists cst', read_box_body (mkH nm (hl + lenN body) hl) (mkI (pre ++ body ++ post) (lenN pre) cst)
               = (Ok body, mkI (pre ++ body ++ post) (lenN pre + lenN body) cst').
Proof.
  intros Hl. destruct (read_box_body_window nm hl _ _ _ cst (window_mid pre body post) Hl) as [c' E].
  exists c'. rewrite ir_at_mid, ir_at_mid_end. exact E.
Qed.

(* ---------------------------------------------------------------- the two box headers *)
(* what both encoders write in front of a box: the compact header, or - large - size field 1, type, 64-bit size *)
Definition hdr_len (large : bool) : N := if large then 16 else 8.
Definition hdr_bytes (large : bool) (nm : list N) (size : N) : list N :=
  be4 (if large then 1 else size) ++ nm ++ (if large then be8 size else []).

Lemma zlen_hdr_bytes large nm size : length nm = 4%nat -> zlen (hdr_bytes large nm size) = Z.of_N (hdr_len large).
Proof. intros H. unfold hdr_bytes, zlen. rewrite !app_length, H. destruct large; reflexivity. Qed.

Lemma hdr_sr_canon large nm size buf p cst :
  length nm = 4%nat -> (hdr_len large <= size < 4294967296)%N -> window buf p (hdr_bytes large nm size) -> zlen buf < two63 ->
  decode_header_sr (mkS (mkR buf p false) cst)
  = (Ok (mkH nm size (hdr_len large)), mkS (mkR buf (p + Z.of_N (hdr_len large)) false) cst).
Proof.
  intros Hn Hsz W Hs. apply window_app in W as [W1 W]. apply window_app in W as [W2 W3].
  assert (Hz : zlen nm = 4) by (unfold zlen; rewrite Hn; reflexivity).
  change (zlen (be4 (if large then 1%N else size))) with 4 in W2, W3. rewrite Hz in W3.
  unfold decode_header_sr. cbn [sr scost].
  rewrite (read_fixed_window 4 _ _ _ W1 eq_refl), (read_fixed_string_window 4 _ _ _ W2 Hz Hs).
  destruct large; cbn [hdr_len] in *.
  - change (be (be4 1) 0 =? 1)%N with true. cbv iota.
    rewrite (read_fixed_window 8 _ _ _ W3 eq_refl), be_be8 by lia.
    replace (size <? 16)%N with false by lia. cbn [rerr]. replace (p + 4 + 4 + 8) with (p + Z.of_N 16) by lia. reflexivity.
  - rewrite be_be4 by lia. replace (size =? 1)%N with false by lia. replace (size =? 0)%N with false by lia.
    replace (size <? 8)%N with false by lia. cbn [rerr]. replace (p + 4 + 4) with (p + Z.of_N 8) by lia. reflexivity.
Qed.

Lemma hdr_r_canon large nm size buf p cst :
  length nm = 4%nat -> (hdr_len large <= size < 4294967296)%N -> window buf p (hdr_bytes large nm size) ->
  decode_header (ir_at buf p cst)
  = (Ok (HHdr (mkH nm size (hdr_len large))),
     ir_at buf (p + Z.of_N (hdr_len large)) (if large then allocn 8 (allocn 8 cst) else allocn 8 cst)).
Proof.
  intros Hn Hsz W. unfold hdr_bytes in W. rewrite app_assoc in W. apply window_app in W as [W1 W2].
  assert (Hl : lenN (be4 (if large then 1 else size) ++ nm) = 8%N) by (unfold lenN; rewrite app_length, Hn; reflexivity).
  assert (Hz : zlen (be4 (if large then 1 else size) ++ nm) = 8) by (rewrite zlen_lenN, Hl; reflexivity).
  rewrite Hz in *.
  unfold decode_header. change (icharge (allocn 8) (ir_at buf p cst)) with (ir_at buf p (allocn 8 cst)).
  rewrite (read_full_window 8 _ _ _ _ W1 Hl eq_refl), Hz.
  assert (G1 : forall w, gslice (be4 w ++ nm) 0 4 = Ok (be4 w)) by (intros w; exact (gslice_mid [] (be4 w) nm)).
  assert (G2 : forall w, gslice (be4 w ++ nm) 4 8 = Ok nm).
  { intros w. pose proof (gslice_mid (be4 w) nm []) as G. rewrite app_nil_r in G.
    replace (zlen (be4 w) + zlen nm) with 8 in G by (unfold zlen; rewrite Hn; reflexivity). exact G. }
  rewrite G1, G2. destruct large; cbn [hdr_len] in *.
  - change (be (be4 1) 0 =? 1)%N with true. cbv iota.
    change (icharge (allocn 8) (ir_at buf (p + 8) (allocn 8 cst))) with (ir_at buf (p + 8) (allocn 8 (allocn 8 cst))).
    rewrite (read_full_window 8 _ _ _ _ W2 eq_refl eq_refl), be_be8 by lia.
    replace (size <? 16)%N with false by lia. change (zlen (be8 size)) with 8. replace (p + 8 + 8) with (p + Z.of_N 16) by lia. reflexivity.
  - rewrite be_be4 by lia. replace (size =? 1)%N with false by lia. replace (size =? 0)%N with false by lia.
    replace (size <? 8)%N with false by lia. reflexivity.
Qed.

(* DecodeBoxSR's test `maxSize < hdr.Size`, behind a header of hl bytes that announces no more than the buffer holds *)
Lemma maxsize_ok buf q hl size :
  zlen buf < two63 -> 0 <= q <= zlen buf -> (hl <= 16)%N -> Z.of_N size <= Z.of_N hl + (zlen buf - q) ->
  (addu64 (u64z (nr_remaining (mkR buf q false))) hl <? size)%N = false.
Proof.
  intros Hs Hq Hh Hsz. unfold nr_remaining, rlen. cbn [rerr rbuf rpos].
  rewrite w64_id by (unfold two63 in *; lia).
  unfold u64z, two64. rewrite Z.mod_small by (unfold two63 in *; lia).
  rewrite addu64_small by (unfold two63 in *; lia). lia.
Qed.

(* ---------------------------------------------------------------- canonical trees *)
Section ctree_ind2.
  Variable P : ctree -> Prop.
  Hypothesis Hl : forall nm p, P (CLeaf nm p).
  Hypothesis Hc : forall nm kids, Forall P kids -> P (CNode nm kids).
  Hypothesis Hg : forall nm p, P (CLarge nm p).
  Fixpoint ctree_ind2 (c : ctree) : P c :=
    match c with
    | CLeaf nm p => Hl nm p
    | CNode nm kids =>
        Hc nm kids ((fix go (l : list ctree) : Forall P l :=
                       match l with [] => Forall_nil _ | k :: r => Forall_cons _ (ctree_ind2 k) (go r) end) kids)
    | CLarge nm p => Hg nm p
    end.
End ctree_ind2.

(* every canonical string is a header followed by a body *)
Lemma cenc_leaf nm p : cenc (CLeaf nm p) = hdr_bytes false nm (8 + lenN p) ++ p.
Proof. unfold hdr_bytes. cbn [cenc]. rewrite app_nil_r, <- app_assoc. reflexivity. Qed.
Lemma cenc_large nm p : cenc (CLarge nm p) = hdr_bytes true nm (16 + lenN p) ++ p.
Proof. unfold hdr_bytes. cbn [cenc]. rewrite <- !app_assoc. reflexivity. Qed.
Lemma cenc_node nm kids : cenc (CNode nm kids) = hdr_bytes false nm (8 + lenN (cencs kids)) ++ cencs kids.
Proof. unfold hdr_bytes. change (cenc (CNode nm kids)) with (be4 (8 + lenN (cencs kids)) ++ nm ++ cencs kids). rewrite app_nil_r, <- app_assoc. reflexivity. Qed.

Lemma cwf_node ld nm kids :
  cwf ld (CNode nm kids) <-> length nm = 4%nat /\ is_cont (ld_kind ld nm) = true /\ Forall (cwf ld) kids.
Proof.
  cbn [cwf]. split; intros [H1 [H2 H3]]; (split; [exact H1|split; [exact H2|]]).
  - induction kids as [|k r IH]; [constructor|]. destruct H3 as [Hk Hr]. constructor; [exact Hk|apply IH; exact Hr].
  - induction H3 as [|k r Hk Hr IH]; [exact I|]. split; [exact Hk|exact IH].
Qed.

Lemma lenN_hdr_app large nm body : length nm = 4%nat ->
  lenN (hdr_bytes large nm (hdr_len large + lenN body) ++ body) = (hdr_len large + lenN body)%N.
Proof. intros H. pose proof (zlen_hdr_bytes large nm (hdr_len large + lenN body) H). rewrite lenN_app. rewrite zlen_lenN in *. lia. Qed.

Lemma cenc_len_ge8 ld c : cwf ld c -> (8 <= lenN (cenc c))%N.
Proof.
  destruct c as [nm p|nm kids|nm p]; cbn [cwf]; intros [H _];
    [rewrite cenc_leaf, (lenN_hdr_app false)|rewrite cenc_node, (lenN_hdr_app false)|rewrite cenc_large, (lenN_hdr_app true)];
    try exact H; cbn [hdr_len]; lia.
Qed.

Definition fits (c : ctree) : Prop := (lenN (cenc c) < 4294967296)%N.

Lemma fits_cons k rest : (lenN (cencs (k :: rest)) < 4294967296)%N -> fits k /\ (lenN (cencs rest) < 4294967296)%N.
Proof. cbn [cencs]. rewrite lenN_app. unfold fits. lia. Qed.

(* Size() of the decoded tree is the length of the canonical string *)
Lemma tsize_erase ld : forall c, cwf ld c -> fits c -> tsize (erase c) = lenN (cenc c).
Proof.
  induction c as [nm p|nm kids IH|nm p] using ctree_ind2; intros Hw Hf.
  3:{ destruct Hw as [Hn _]. rewrite cenc_large, (lenN_hdr_app true) by exact Hn. reflexivity. }
  - destruct Hw as [Hn _]. rewrite cenc_leaf, (lenN_hdr_app false) by exact Hn. reflexivity.
  - apply cwf_node in Hw. destruct Hw as [Hn [_ Hk]]. unfold fits in Hf. rewrite cenc_node, (lenN_hdr_app false) in * by exact Hn.
    cbn [erase tsize hdr_len] in *.
    assert (E : (lenN (cencs kids) < 4294967296)%N ->
                (fix go (l0 : list tree) : N := match l0 with [] => 0%N | c :: r => addu64 (tsize c) (go r) end) (map erase kids)
                = lenN (cencs kids)).
    { clear Hf. induction Hk as [|k r Hk Hr IHr]; intros HL; [reflexivity|].
      apply Forall_cons_iff in IH as [IHk IH]. apply fits_cons in HL as HL'. destruct HL' as [Hfk HLr].
      cbn [map cencs] in *. rewrite lenN_app in *.
      rewrite IHr, IHk by assumption. apply addu64_small. lia. }
    rewrite E by lia. apply addu64_small. lia.
Qed.

(* the contract of a canonical leaf behind a header of hl bytes: canon_leaf is hl = 8, canon_large is hl = 16 *)
Definition leaf_contract (hl : N) (ld : leafdec) (nm p : list N) : Prop :=
  ld_kind ld nm = KLeaf /\
  (forall pre post cst, zlen (pre ++ p ++ post) < two63 ->
      exists cst',
        ld_sr ld (mkH nm (hl + lenN p) hl) (mkS (mkR (pre ++ p ++ post) (zlen pre) false) cst)
        = (Ok (hl + lenN p)%N, mkS (mkR (pre ++ p ++ post) (zlen pre + zlen p) false) cst')) /\
  (forall pre post cst, zlen (pre ++ p ++ post) < two63 ->
      exists cst',
        ld_r ld (mkH nm (hl + lenN p) hl) (mkI (pre ++ p ++ post) (lenN pre) cst)
        = (Ok (hl + lenN p)%N, mkI (pre ++ p ++ post) (lenN pre + lenN p) cst')).

Definition sr_at (buf : list N) (p : Z) (cst : cost) : sst := mkS (mkR buf p false) cst.

Lemma leaf_contract_sr hl ld nm x buf p cst : leaf_contract hl ld nm x -> window buf p x -> zlen buf < two63 ->
  exists cst', ld_sr ld (mkH nm (hl + lenN x) hl) (sr_at buf p cst) = (Ok (hl + lenN x)%N, sr_at buf (p + zlen x) cst').
Proof. intros (_ & H & _) (pre & post & -> & ->). apply H. Qed.

Lemma leaf_contract_r hl ld nm x buf p cst : leaf_contract hl ld nm x -> window buf p x -> zlen buf < two63 ->
  exists cst', ld_r ld (mkH nm (hl + lenN x) hl) (ir_at buf p cst) = (Ok (hl + lenN x)%N, ir_at buf (p + zlen x) cst').
Proof.
  intros (_ & _ & H) (pre & post & -> & ->) Hs. destruct (H pre post cst Hs) as [c E]. exists c.
  rewrite <- ir_at_mid, <- ir_at_mid_end. exact E.
Qed.

(* the outcome of a decoder run on a canonical string when the fuel is arbitrary: the model ran dry, or the expected value *)
Definition canon_out {A S} (run : res A * S) (v : A) (final : S -> Prop) : Prop :=
  fst run = OutOfFuel \/ (fst run = Ok v /\ final (snd run)).

Lemma canon_out_oof {A S} (s : S) (v : A) final : canon_out (OutOfFuel, s) v final.
Proof. left. reflexivity. Qed.

(* ---------------------------------------------------------------- SliceReader path on canonical strings *)
Section SRC.
Variable ld : leafdec.

(* what dec_box_sr must return on a canonical box standing at q in the buffer, unless fuel runs out *)
Definition box_canon_sr (c : ctree) : Prop :=
  forall fuel sp buf q cst,
    window buf q (cenc c) -> zlen buf < two63 -> (sp + lenN (cenc c) < 18446744073709551616)%N ->
    canon_out (dec_box_sr ld fuel sp (sr_at buf q cst)) (erase c) (fun s' => sr s' = mkR buf (q + zlen (cenc c)) false).

(* a leaf behind either header *)
Lemma leaf_canon_sr large nm p fuel sp buf q cst :
  length nm = 4%nat -> leaf_contract (hdr_len large) ld nm p -> (hdr_len large + lenN p < 4294967296)%N ->
  window buf q (hdr_bytes large nm (hdr_len large + lenN p) ++ p) -> zlen buf < two63 ->
  canon_out (dec_box_sr ld fuel sp (sr_at buf q cst)) (Leaf nm (hdr_len large + lenN p))
            (fun s' => sr s' = mkR buf (q + zlen (hdr_bytes large nm (hdr_len large + lenN p) ++ p)) false).
Proof.
  intros Hn Hc Hf W Hs. destruct fuel as [|f]; [apply canon_out_oof|]. right.
  rewrite zlen_app, zlen_hdr_bytes by exact Hn. apply window_app in W as [Wh Wp]. rewrite zlen_hdr_bytes in Wp by exact Hn.
  destruct (window_range _ _ _ Wp).
  cbn [dec_box_sr]. change (scharge (tick 1) (sr_at buf q cst)) with (mkS (mkR buf q false) (tick 1 cst)).
  rewrite (hdr_sr_canon large nm (hdr_len large + lenN p) buf q _ Hn) by (assumption || lia).
  cbn [hname hsize hlen sr].
  rewrite maxsize_ok by (try assumption; destruct large; cbn [hdr_len] in *; rewrite ?zlen_lenN in *; lia).
  cbn [andb]. rewrite (proj1 Hc).
  destruct (leaf_contract_sr _ _ _ _ _ _ (tick 1 cst) Hc Wp Hs) as [c' E]. unfold sr_at in E. rewrite E.
  split; [reflexivity|]. cbn [snd sr]. f_equal. lia.
Qed.

Lemma kids_canon_sr : forall kids,
  Forall (fun c => cwf ld c -> fits c -> box_canon_sr c) kids -> Forall (cwf ld) kids ->
  forall fuel sp0 pos endPos initPos acc buf q cst,
    window buf q (cencs kids) -> zlen buf < two63 ->
    (pos + lenN (cencs kids) < 18446744073709551616)%N -> (lenN (cencs kids) < 4294967296)%N ->
    endPos = (pos + lenN (cencs kids))%N -> (sp0 <= pos)%N -> 0 <= initPos -> Z.of_N (pos - sp0) = q - initPos ->
    canon_out (children_sr ld fuel sp0 pos endPos initPos acc (sr_at buf q cst)) (rev acc ++ map erase kids)
              (fun s' => sr s' = mkR buf (q + zlen (cencs kids)) false).
Proof.
  induction kids as [|k rest IHr]; intros HI HW fuel sp0 pos endPos initPos acc buf q cst W Hs Hp Hl He Hsp Hi Hrel;
    (destruct fuel as [|f]; [apply canon_out_oof|]); cbn [children_sr].
  - change (lenN (cencs [])) with 0%N in He. rewrite N.add_0_r in He. subst endPos. rewrite N.ltb_irrefl, N.eqb_refl.
    right. cbn [map fst snd sr_at sr cencs]. rewrite app_nil_r. change (zlen (@nil N)) with 0. rewrite Z.add_0_r. split; reflexivity.
  - apply Forall_cons_iff in HI as [HIk HIr]. apply Forall_cons_iff in HW as [HWk HWr].
    pose proof (cenc_len_ge8 ld k HWk) as Hk8. apply fits_cons in Hl as Hl'. destruct Hl' as [Hfk Hlr].
    fold (dec_box_sr ld). fold (children_sr ld).
    cbn [cencs] in *. rewrite lenN_app in *. apply window_app in W as [Wk Wr].
    replace (endPos <? pos)%N with false by lia. replace (pos =? endPos)%N with false by lia.
    change (scharge (tick 1) (sr_at buf q cst)) with (sr_at buf q (tick 1 cst)).
    destruct (HIk HWk Hfk f pos buf q (tick 1 cst) Wk Hs ltac:(lia)) as [Ho|[Ho Hs1]];
      destruct (dec_box_sr ld f pos (sr_at buf q (tick 1 cst))) as [rb [r1 c1]]; cbn [fst snd sr] in *; subst rb;
      [apply canon_out_oof|]. subst r1.
    rewrite (tsize_erase ld k HWk Hfk), addu64_small by lia. cbn [scharge sr scost rpos].
    (* the position check of the loop: bytes consumed = sum of the children's Size() *)
    assert (Hchk : int_of_u64 (subu64 (pos + lenN (cenc k)) sp0) = q + zlen (cenc k) - initPos).
    { rewrite subu64_small by lia. unfold int_of_u64. destruct (window_range _ _ _ Wr). pose proof (zlen_nonneg (cencs rest)).
      rewrite w64_id; rewrite ?zlen_lenN in *; unfold two63 in *; lia. }
    rewrite Hchk, Z.eqb_refl.
    replace (rev acc ++ map erase (k :: rest)) with (rev (erase k :: acc) ++ map erase rest)
      by (cbn [rev map]; rewrite <- app_assoc; reflexivity).
    rewrite zlen_app, Z.add_assoc.
    apply (IHr HIr HWr f sp0 (pos + lenN (cenc k))%N endPos initPos (erase k :: acc) buf (q + zlen (cenc k)) (allocn 1 c1));
      try assumption; rewrite ?(zlen_lenN (cenc k)); lia.
Qed.

Lemma box_canon_sr_all : forall c, cwf ld c -> fits c -> box_canon_sr c.
Proof.
  induction c as [nm p|nm kids IH|nm p] using ctree_ind2; intros Hw Hf fuel sp buf q cst W Hs Hsp.
  3:{ destruct Hw as [Hn Hc]. unfold fits in Hf. rewrite cenc_large in *. rewrite (lenN_hdr_app true) in Hf by exact Hn.
      apply (leaf_canon_sr true); assumption. }
  - destruct Hw as [Hn Hc]. unfold fits in Hf. rewrite cenc_leaf in *. rewrite (lenN_hdr_app false) in Hf by exact Hn.
    apply (leaf_canon_sr false); assumption.
  - apply cwf_node in Hw. destruct Hw as [Hn [Hk Hkids]]. unfold fits in Hf. rewrite cenc_node in *.
    rewrite (lenN_hdr_app false) in Hf, Hsp by exact Hn. cbn [hdr_len] in *. set (body := cencs kids) in *.
    destruct fuel as [|f]; [apply canon_out_oof|].
    rewrite zlen_app, zlen_hdr_bytes by exact Hn. apply window_app in W as [Wh Wb]. rewrite zlen_hdr_bytes in Wb by exact Hn.
    destruct (window_range _ _ _ Wb). cbn [hdr_len] in *.
    cbn [dec_box_sr]. fold (children_sr ld). change (scharge (tick 1) (sr_at buf q cst)) with (mkS (mkR buf q false) (tick 1 cst)).
    rewrite (hdr_sr_canon false nm (8 + lenN body) buf q _ Hn) by (assumption || cbn [hdr_len]; lia).
    cbn [hname hsize hlen sr hdr_len].
    rewrite maxsize_ok by (try assumption; rewrite ?zlen_lenN in *; lia). cbn [andb rpos].
    rewrite !addu64_small by lia.
    (* the children loop, whatever the container kind *)
    pose proof (kids_canon_sr kids IH Hkids f (sp + 8)%N (sp + 8)%N (sp + (8 + lenN body))%N (q + 8) [] buf (q + 8) (allocn 8 (tick 1 cst))
                  Wb Hs ltac:(fold body; lia) ltac:(fold body; lia) ltac:(fold body; lia) ltac:(lia) ltac:(lia) ltac:(lia)) as KL.
    change (scharge (allocn 8) {| sr := mkR buf (q + Z.of_N 8) false; scost := tick 1 cst |}) with (sr_at buf (q + 8) (allocn 8 (tick 1 cst))).
    change (Z.of_N 8) with 8.
    destruct (children_sr ld f (sp + 8) (sp + 8) (sp + (8 + lenN body)) (q + 8) [] (sr_at buf (q + 8) (allocn 8 (tick 1 cst)))) as [rk sk].
    destruct KL as [Ho|[Ho Hsk]]; cbn [fst snd] in *; subst rk.
    { destruct (ld_kind ld nm); [discriminate|apply canon_out_oof..]. }
    right. destruct (ld_kind ld nm); [discriminate| |]; rewrite ?Hsk; cbn [rerr]; rewrite ?andb_false_r;
      (split; [reflexivity|]); cbn [snd]; rewrite Hsk; f_equal; fold body; lia.
Qed.
End SRC.

(* ---------------------------------------------------------------- io.Reader path on canonical strings *)
Section RDC.
Variable ld : leafdec.

Definition box_canon_r (c : ctree) : Prop :=
  forall fuel sp buf q cst,
    window buf q (cenc c) -> zlen buf < two63 -> (sp + lenN (cenc c) < 18446744073709551616)%N ->
    canon_out (dec_box_r ld fuel sp (ir_at buf q cst)) (BBox (erase c))
              (fun s' => exists cst', s' = ir_at buf (q + zlen (cenc c)) cst').

Lemma leaf_canon_r large nm p fuel sp buf q cst :
  length nm = 4%nat -> leaf_contract (hdr_len large) ld nm p -> (hdr_len large + lenN p < 4294967296)%N ->
  window buf q (hdr_bytes large nm (hdr_len large + lenN p) ++ p) -> zlen buf < two63 ->
  canon_out (dec_box_r ld fuel sp (ir_at buf q cst)) (BBox (Leaf nm (hdr_len large + lenN p)))
            (fun s' => exists cst', s' = ir_at buf (q + zlen (hdr_bytes large nm (hdr_len large + lenN p) ++ p)) cst').
Proof.
  intros Hn Hc Hf W Hs. destruct fuel as [|f]; [apply canon_out_oof|]. right.
  rewrite zlen_app, zlen_hdr_bytes by exact Hn. apply window_app in W as [Wh Wp]. rewrite zlen_hdr_bytes in Wp by exact Hn.
  cbn [dec_box_r]. change (icharge (tick 1) (ir_at buf q cst)) with (ir_at buf q (tick 1 cst)).
  rewrite (hdr_r_canon large nm (hdr_len large + lenN p) buf q _ Hn) by (assumption || lia).
  cbn [hname]. rewrite (proj1 Hc).
  match goal with |- context [ld_r ld _ (ir_at _ _ ?c0)] => destruct (leaf_contract_r _ _ _ _ _ _ c0 Hc Wp Hs) as [c' E] end.
  rewrite E. split; [reflexivity|]. exists c'. cbn [snd]. rewrite Z.add_assoc. reflexivity.
Qed.

Lemma kids_canon_r : forall kids,
  Forall (fun c => cwf ld c -> fits c -> box_canon_r c) kids -> Forall (cwf ld) kids ->
  forall fuel pos endPos acc buf q cst,
    window buf q (cencs kids) -> zlen buf < two63 ->
    (pos + lenN (cencs kids) < 18446744073709551616)%N -> (lenN (cencs kids) < 4294967296)%N ->
    endPos = (pos + lenN (cencs kids))%N ->
    canon_out (children_r ld fuel pos endPos acc (ir_at buf q cst)) (rev acc ++ map erase kids)
              (fun s' => exists cst', s' = ir_at buf (q + zlen (cencs kids)) cst').
Proof.
  induction kids as [|k rest IHr]; intros HI HW fuel pos endPos acc buf q cst W Hs Hp Hl He;
    (destruct fuel as [|f]; [apply canon_out_oof|]); cbn [children_r].
  - change (lenN (cencs [])) with 0%N in He. rewrite N.add_0_r in He. subst endPos. rewrite N.eqb_refl.
    right. cbn [map fst snd cencs]. rewrite app_nil_r. change (zlen (@nil N)) with 0. rewrite Z.add_0_r.
    split; [reflexivity|]. exists cst. reflexivity.
  - apply Forall_cons_iff in HI as [HIk HIr]. apply Forall_cons_iff in HW as [HWk HWr].
    pose proof (cenc_len_ge8 ld k HWk) as Hk8. apply fits_cons in Hl as Hl'. destruct Hl' as [Hfk Hlr].
    fold (dec_box_r ld). fold (children_r ld).
    cbn [cencs] in *. rewrite lenN_app in *. apply window_app in W as [Wk Wr].
    replace (pos =? endPos)%N with false by lia. replace (endPos <? pos)%N with false by lia.
    change (icharge (tick 1) (ir_at buf q cst)) with (ir_at buf q (tick 1 cst)).
    destruct (HIk HWk Hfk f pos buf q (tick 1 cst) Wk Hs ltac:(lia)) as [Ho|[Ho [c1 Hs1]]];
      destruct (dec_box_r ld f pos (ir_at buf q (tick 1 cst))) as [rb s1]; cbn [fst snd] in *; subst rb;
      [apply canon_out_oof|]. subst s1.
    rewrite (tsize_erase ld k HWk Hfk), addu64_small by lia.
    change (icharge (allocn 1) (ir_at buf (q + zlen (cenc k)) c1)) with (ir_at buf (q + zlen (cenc k)) (allocn 1 c1)).
    replace (rev acc ++ map erase (k :: rest)) with (rev (erase k :: acc) ++ map erase rest)
      by (cbn [rev map]; rewrite <- app_assoc; reflexivity).
    rewrite zlen_app, Z.add_assoc. apply IHr; try assumption; lia.
Qed.

Lemma box_canon_r_all : forall c, cwf ld c -> fits c -> box_canon_r c.
Proof.
  induction c as [nm p|nm kids IH|nm p] using ctree_ind2; intros Hw Hf fuel sp buf q cst W Hs Hsp.
  3:{ destruct Hw as [Hn Hc]. unfold fits in Hf. rewrite cenc_large in *. rewrite (lenN_hdr_app true) in Hf by exact Hn.
      apply (leaf_canon_r true); assumption. }
  - destruct Hw as [Hn Hc]. unfold fits in Hf. rewrite cenc_leaf in *. rewrite (lenN_hdr_app false) in Hf by exact Hn.
    apply (leaf_canon_r false); assumption.
  - apply cwf_node in Hw. destruct Hw as [Hn [Hk Hkids]]. unfold fits in Hf. rewrite cenc_node in *.
    rewrite (lenN_hdr_app false) in Hf, Hsp by exact Hn. cbn [hdr_len] in *. set (body := cencs kids) in *.
    destruct fuel as [|f]; [apply canon_out_oof|].
    rewrite zlen_app, zlen_hdr_bytes by exact Hn. apply window_app in W as [Wh Wb]. rewrite zlen_hdr_bytes in Wb by exact Hn.
    cbn [hdr_len] in *. change (Z.of_N 8) with 8 in *.
    cbn [dec_box_r]. fold (children_r ld). change (icharge (tick 1) (ir_at buf q cst)) with (ir_at buf q (tick 1 cst)).
    rewrite (hdr_r_canon false nm (8 + lenN body) buf q _ Hn) by (assumption || cbn [hdr_len]; lia).
    cbn [hname hsize hdr_len]. change (Z.of_N 8) with 8. rewrite !addu64_small by lia.
    destruct (ld_kind ld nm); [discriminate| |].
    + (* the same reader *)
      change (icharge (allocn 8) (ir_at buf (q + 8) (allocn 8 (tick 1 cst)))) with (ir_at buf (q + 8) (allocn 8 (allocn 8 (tick 1 cst)))).
      pose proof (kids_canon_r kids IH Hkids f (sp + 8)%N (sp + (8 + lenN body))%N [] buf (q + 8) (allocn 8 (allocn 8 (tick 1 cst)))
                    Wb Hs ltac:(fold body; lia) ltac:(fold body; lia) ltac:(fold body; lia)) as KL.
      destruct (children_r ld f (sp + 8) (sp + (8 + lenN body)) [] (ir_at buf (q + 8) (allocn 8 (allocn 8 (tick 1 cst))))) as [rk sk].
      destruct KL as [Ho|[Ho [c' Hsk]]]; cbn [fst snd] in *; subst rk; [apply canon_out_oof|]. subst sk.
      right. split; [reflexivity|]. exists c'. cbn [snd]. fold body. rewrite Z.add_assoc. reflexivity.
    + (* the body is read, then the SliceReader loop runs over it *)
      rewrite (payload_len_eq nm 8 (lenN body)) by lia. rewrite <- zlen_lenN.
      rewrite (read_limited_window _ _ _ _ Wb), Z.eqb_refl. cbn [negb ir_at ibuf ipos icost].
      match goal with |- context [children_sr ld f ?a ?b ?c 0 [] (mkS (rnew body) ?c0)] =>
        pose proof (kids_canon_sr ld kids ltac:(apply Forall_forall; intros; apply box_canon_sr_all; assumption) Hkids
                      f a b c 0 [] body 0 c0 (window_all body) ltac:(destruct (window_range _ _ _ Wb); lia)
                      ltac:(fold body; lia) ltac:(fold body; lia) ltac:(fold body; lia) ltac:(lia) ltac:(lia) ltac:(lia)) as KL;
        change (mkS (rnew body) c0) with (sr_at body 0 c0);
        destruct (children_sr ld f a b c 0 [] (sr_at body 0 c0)) as [rk sk] end.
      destruct KL as [Ho|[Ho _]]; cbn [fst snd] in *; subst rk; [apply canon_out_oof|].
      right. split; [reflexivity|]. eexists. cbn [snd]. unfold ir_at. fold body. rewrite Z.add_assoc. reflexivity.
Qed.
End RDC.

(* ---------------------------------------------------------------- with the C04 leaf contract: enough fuel, one outcome *)
Lemma canon_out_ok {A S} (run : res A * S) v final : canon_out run v final -> fst run <> OutOfFuel -> fst run = Ok v /\ final (snd run).
Proof. intros [H|H] NF; [contradiction|exact H]. Qed.

Lemma Inv_window buf q x : window buf q x -> zlen buf < two63 -> Inv (mkR buf q false).
Proof. intros W Hs. destruct (window_range _ _ _ W). pose proof (zlen_nonneg x). unfold Inv, rlen. cbn [rbuf rpos]. lia. Qed.

Lemma IInv_window buf q x cst : window buf q x -> zlen buf < two63 -> IInv (ir_at buf q cst).
Proof.
  intros W Hs. destruct (window_range _ _ _ W). pose proof (zlen_nonneg x).
  unfold IInv, ip, il, ir_at. cbn [ibuf ipos]. rewrite <- zlen_lenN. lia.
Qed.

Section FUEL.
Variable ld : leafdec.
Hypothesis LD : leaf_ok ld.

Lemma dec_box_sr_canon c fuel sp buf q cst : cwf ld c -> fits c ->
  window buf q (cenc c) -> zlen buf < two63 -> (sp + lenN (cenc c) < 18446744073709551616)%N -> zlen buf - q < Z.of_nat fuel ->
  exists cst', dec_box_sr ld fuel sp (sr_at buf q cst) = (Ok (erase c), sr_at buf (q + zlen (cenc c)) cst').
Proof.
  intros Hw Hf W Hs Hsp Hfuel.
  destruct (proj1 (sr_loops ld LD fuel) sp (sr_at buf q cst) (Inv_window _ _ _ W Hs)) as (r & s' & E & _ & NF & _).
  pose proof (box_canon_sr_all ld c Hw Hf fuel sp buf q cst W Hs Hsp) as C. rewrite E in C.
  apply canon_out_ok in C as [Ho Hs']; [|apply NF; exact Hfuel]. cbn [fst snd] in *. subst r.
  destruct s' as [r' c']. cbn [sr] in Hs'. subst r'. exists c'. exact E.
Qed.

Lemma children_sr_canon kids fuel sp0 pos initPos buf q cst : Forall (cwf ld) kids ->
  window buf q (cencs kids) -> zlen buf < two63 ->
  (pos + lenN (cencs kids) < 18446744073709551616)%N -> (lenN (cencs kids) < 4294967296)%N ->
  (sp0 <= pos)%N -> 0 <= initPos -> Z.of_N (pos - sp0) = q - initPos -> zlen buf - q + 1 < Z.of_nat fuel ->
  exists cst', children_sr ld fuel sp0 pos (pos + lenN (cencs kids)) initPos [] (sr_at buf q cst)
               = (Ok (map erase kids), sr_at buf (q + zlen (cencs kids)) cst').
Proof.
  intros HW W Hs Hp Hl Hsp Hi Hrel Hfuel.
  destruct (proj2 (sr_loops ld LD fuel) sp0 pos (pos + lenN (cencs kids))%N initPos [] (sr_at buf q cst) (Inv_window _ _ _ W Hs))
    as (r & s' & E & _ & NF & _).
  pose proof (kids_canon_sr ld kids ltac:(apply Forall_forall; intros; apply box_canon_sr_all; assumption) HW
                fuel sp0 pos _ initPos [] buf q cst W Hs Hp Hl eq_refl Hsp Hi Hrel) as C. rewrite E in C.
  apply canon_out_ok in C as [Ho Hs']; [|apply NF; exact Hfuel]. cbn [fst snd rev app] in *. subst r.
  destruct s' as [r' c']. cbn [sr] in Hs'. subst r'. exists c'. exact E.
Qed.

Lemma dec_box_r_canon c fuel sp buf q cst : cwf ld c -> fits c ->
  window buf q (cenc c) -> zlen buf < two63 -> (sp + lenN (cenc c) < 18446744073709551616)%N -> zlen buf - q < Z.of_nat fuel ->
  exists cst', dec_box_r ld fuel sp (ir_at buf q cst) = (Ok (BBox (erase c)), ir_at buf (q + zlen (cenc c)) cst').
Proof.
  intros Hw Hf W Hs Hsp Hfuel. destruct (window_range _ _ _ W).
  destruct (proj1 (r_loops ld LD fuel) sp (ir_at buf q cst) (IInv_window _ _ _ cst W Hs)) as (r & s' & E & _ & NF & _).
  pose proof (box_canon_r_all ld c Hw Hf fuel sp buf q cst W Hs Hsp) as C. rewrite E in C.
  apply canon_out_ok in C as [Ho [c' Hs']].
  - cbn [fst snd] in *. subst r s'. exists c'. exact E.
  - apply NF. unfold irem, ip, il, ir_at. cbn [ibuf ipos]. rewrite <- zlen_lenN. lia.
Qed.

Lemma children_r_canon kids fuel pos buf q cst : Forall (cwf ld) kids ->
  window buf q (cencs kids) -> zlen buf < two63 ->
  (pos + lenN (cencs kids) < 18446744073709551616)%N -> (lenN (cencs kids) < 4294967296)%N -> zlen buf - q + 1 < Z.of_nat fuel ->
  exists cst', children_r ld fuel pos (pos + lenN (cencs kids)) [] (ir_at buf q cst)
               = (Ok (map erase kids), ir_at buf (q + zlen (cencs kids)) cst').
Proof.
  intros HW W Hs Hp Hl Hfuel. destruct (window_range _ _ _ W).
  destruct (proj2 (r_loops ld LD fuel) pos (pos + lenN (cencs kids))%N [] (ir_at buf q cst) (IInv_window _ _ _ cst W Hs))
    as (r & s' & E & _ & NF & _).
  pose proof (kids_canon_r ld kids ltac:(apply Forall_forall; intros; apply box_canon_r_all; assumption) HW
                fuel pos _ [] buf q cst W Hs Hp Hl eq_refl) as C. rewrite E in C.
  apply canon_out_ok in C as [Ho [c' Hs']].
  - cbn [fst snd rev app] in *. subst r s'. exists c'. exact E.
  - apply NF. unfold irem, ip, il, ir_at. cbn [ibuf ipos]. rewrite <- zlen_lenN. lia.
Qed.
End FUEL.

(* ---------------------------------------------------------------- the theorem *)
Theorem decode_agree_canonical : forall ld c, leaf_ok ld -> cwf ld c -> fits c ->
  fst (box_sr ld (cenc c)) = Ok (erase c) /\ fst (box_r ld (cenc c)) = Ok (BBox (erase c)).
Proof.
  intros ld c LD Hw Hf.
  assert (Hs : zlen (cenc c) < two63) by (rewrite zlen_lenN; unfold fits, two63 in *; lia).
  assert (Hfuel : zlen (cenc c) - 0 < Z.of_nat (S (length (cenc c)))) by (unfold zlen; lia).
  assert (Hsp : (0 + lenN (cenc c) < 18446744073709551616)%N) by (unfold fits in Hf; lia).
  destruct (dec_box_sr_canon ld LD c _ 0%N _ 0 cost0 Hw Hf (window_all _) Hs Hsp Hfuel) as [c1 E1].
  destruct (dec_box_r_canon ld LD c _ 0%N _ 0 cost0 Hw Hf (window_all _) Hs Hsp Hfuel) as [c2 E2].
  unfold box_sr, box_r. change (snew (cenc c)) with (sr_at (cenc c) 0 cost0). change (inew (cenc c)) with (ir_at (cenc c) 0 cost0).
  rewrite E1, E2. split; reflexivity.
Qed.

(* in the "for every byte string" form: on a canonical string one path returns t iff the other does *)
Corollary decode_agree_canonical_iff : forall ld bs c t, leaf_ok ld -> cwf ld c -> fits c -> bs = cenc c ->
  (fst (box_r ld bs) = Ok (BBox t) <-> fst (box_sr ld bs) = Ok t).
Proof.
  intros ld bs c t LD Hw Hf ->. destruct (decode_agree_canonical ld c LD Hw Hf) as [H1 H2].
  rewrite H1, H2. split; intros H; inversion H; reflexivity.
Qed.

(* ---------------------------------------------------------------- the concrete leaves are canonical leaves *)
Definition std_canon_ok (nm p : list N) : Prop :=
  length nm = 4%nat /\ std_kind nm = KLeaf /\ (lenN p < 4294967288)%N /\
  (eqb_name nm name_mdat = true -> (lenN p <= max_normal_payload)%N).

(* MdatBox.Size() behind a header of either length (LargeSize carried over from the header, payload below 4 GiB) *)
Lemma mdat_size_hl (large : bool) n : (hdr_len large + n < 4294967296)%N -> (large = false -> (n <= max_normal_payload)%N) ->
  mdat_size n large = (hdr_len large + n)%N.
Proof.
  intros Hl Hm. unfold mdat_size, max_normal_payload in *. destruct large; cbn [orb hdr_len] in *.
  - rewrite (addu64_small 8), addu64_small; lia.
  - replace (4294967287 <? n)%N with false by (specialize (Hm eq_refl); lia). rewrite (addu64_small 8), addu64_small; lia.
Qed.

(* mdat, free / skip and unknown boxes behind either header, as long as the Size() they report is what the header announced *)
Lemma std_contract large nm p : std_kind nm = KLeaf -> (hdr_len large + lenN p < 4294967296)%N ->
  (if eqb_name nm name_mdat then mdat_size (lenN p) large = (hdr_len large + lenN p)%N
   else eqb_name nm name_free || eqb_name nm name_skip = true -> large = false) ->
  leaf_contract (hdr_len large) std_leaves nm p.
Proof.
  intros Hk Hl Hsz.
  assert (Hlarge : (8 <? hdr_len large)%N = large) by (destruct large; reflexivity).
  assert (Hfs : eqb_name nm name_mdat = false -> eqb_name nm name_free || eqb_name nm name_skip = true ->
                addu64 8 (lenN p) = (hdr_len large + lenN p)%N).
  { intros Em Efs. rewrite Em in Hsz. rewrite (Hsz Efs) in *. apply addu64_small. cbn [hdr_len] in Hl. lia. }
  split; [exact Hk|]. split.
  - intros pre post cst Hall. cbn [ld_sr std_leaves]. unfold std_sr. cbn [hname hsize hlen sr scost].
    rewrite payload_len_eq by lia. rewrite <- zlen_lenN, (read_bytes_window _ _ _ (window_mid pre p post)).
    cbn [rerr]. rewrite Hlarge. destruct (eqb_name nm name_mdat); [rewrite Hsz; eexists; reflexivity|].
    destruct (eqb_name nm name_free || eqb_name nm name_skip); [rewrite Hfs by reflexivity|]; eexists; reflexivity.
  - intros pre post cst Hall. cbn [ld_r std_leaves]. unfold std_r. cbn [hname hsize hlen].
    destruct (read_box_body_mid nm (hdr_len large) p pre post cst ltac:(lia)) as [c' E]. rewrite E, Hlarge. destruct (eqb_name nm name_mdat); [rewrite Hsz; eexists; reflexivity|].
    destruct (eqb_name nm name_free || eqb_name nm name_skip); [rewrite Hfs by reflexivity|]; eexists; reflexivity.
Qed.

Lemma std_canon_leaf nm p : std_canon_ok nm p -> canon_leaf std_leaves nm p.
Proof.
  intros [Hn [Hk [Hl Hm]]]. apply (std_contract false); [exact Hk|cbn [hdr_len]; lia|].
  destruct (eqb_name nm name_mdat); [|reflexivity]. apply (mdat_size_hl false); [cbn [hdr_len]; lia|intros _; apply Hm; reflexivity].
Qed.

(* mdat (and, on the decode side, unknown boxes) behind a 16-byte largesize header *)
Definition std_large_ok (nm p : list N) : Prop :=
  length nm = 4%nat /\ std_kind nm = KLeaf /\ (eqb_name nm name_free || eqb_name nm name_skip) = false /\
  (lenN p < 4294967280)%N.

Lemma std_canon_large nm p : std_large_ok nm p -> canon_large std_leaves nm p.
Proof.
  intros [Hn [Hk [Hfs Hl]]]. apply (std_contract true); [exact Hk|cbn [hdr_len]; lia|].
  destruct (eqb_name nm name_mdat); [|rewrite Hfs; discriminate]. apply (mdat_size_hl true); [cbn [hdr_len]; lia|discriminate].
Qed.

(* ---------------------------------------------------------------- the two byte-level file loops on canonical files *)
Section FILEC.
Variable ld : leafdec.
Hypothesis LD : leaf_ok ld.

Lemma file_sr_canon : forall cs, Forall (cwf ld) cs -> (lenN (cencs cs) < 4294967296)%N ->
  forall fuel pos acc buf q cst,
    window buf q (cencs cs) -> q + zlen (cencs cs) = zlen buf -> zlen buf < two63 ->
    (pos + lenN (cencs cs) < 18446744073709551616)%N -> zlen (cencs cs) + 1 < Z.of_nat fuel ->
    fst (file_boxes_sr ld fuel pos acc (sr_at buf q cst)) = Ok (rev acc ++ map erase cs).
Proof.
  induction cs as [|k rest IH]; intros HW Hl fuel pos acc buf q cst W He Hs Hp Hf;
    (destruct fuel as [|f]; [unfold zlen in Hf; lia|]); cbn [file_boxes_sr];
    unfold nr_remaining, rlen; cbn [sr_at sr rerr rbuf rpos].
  - change (zlen (cencs [])) with 0 in He. replace (zlen buf - q) with 0 by lia. cbn [map]. rewrite app_nil_r. reflexivity.
  - apply Forall_cons_iff in HW as [HWk HWr]. pose proof (cenc_len_ge8 ld k HWk) as Hk8.
    apply fits_cons in Hl as Hl'. destruct Hl' as [Hfk Hlr]. destruct (window_range _ _ _ W).
    cbn [cencs] in *. rewrite zlen_app, lenN_app in *. apply window_app in W as [Wk Wr].
    pose proof (zlen_nonneg (cencs rest)). rewrite (zlen_lenN (cenc k)) in *.
    rewrite w64_id by (unfold two63 in *; lia). replace (zlen buf - q =? 0) with false by lia.
    destruct (dec_box_sr_canon ld LD k f pos buf q cst HWk Hfk Wk Hs ltac:(lia) ltac:(lia)) as [c1 E].
    rewrite E, (tsize_erase ld k HWk Hfk), addu64_small by lia.
    replace (rev acc ++ map erase (k :: rest)) with (rev (erase k :: acc) ++ map erase rest)
      by (cbn [rev map]; rewrite <- app_assoc; reflexivity).
    apply IH; rewrite ?(zlen_lenN (cenc k)); try assumption; lia.
Qed.

Lemma file_r_canon : forall cs, Forall (cwf ld) cs -> (lenN (cencs cs) < 4294967296)%N ->
  forall fuel pos acc buf q cst,
    window buf q (cencs cs) -> q + zlen (cencs cs) = zlen buf -> zlen buf < two63 ->
    (pos + lenN (cencs cs) < 18446744073709551616)%N -> zlen (cencs cs) + 1 < Z.of_nat fuel ->
    fst (file_boxes_r ld fuel pos acc (ir_at buf q cst)) = Ok (rev acc ++ map erase cs).
Proof.
  induction cs as [|k rest IH]; intros HW Hl fuel pos acc buf q cst W He Hs Hp Hf;
    (destruct fuel as [|f]; [unfold zlen in Hf; lia|]); cbn [file_boxes_r].
  - (* at the end of the buffer DecodeHeader's ReadFull returns io.EOF *)
    destruct f as [|f]; [cbn in Hf; lia|]. destruct (window_range _ _ _ W) as [Hq _]. change (zlen (cencs [])) with 0 in He.
    cbn [dec_box_r]. unfold decode_header, read_full, iavail, ir_at. cbn [icharge ibuf ipos icost].
    replace (lenN buf - Z.to_N q)%N with 0%N by (rewrite zlen_lenN in He; lia). cbn [N.eqb map fst]. rewrite app_nil_r. reflexivity.
  - apply Forall_cons_iff in HW as [HWk HWr]. pose proof (cenc_len_ge8 ld k HWk) as Hk8.
    apply fits_cons in Hl as Hl'. destruct Hl' as [Hfk Hlr]. destruct (window_range _ _ _ W).
    cbn [cencs] in *. rewrite zlen_app, lenN_app in *. apply window_app in W as [Wk Wr].
    pose proof (zlen_nonneg (cencs rest)). rewrite (zlen_lenN (cenc k)) in *.
    destruct (dec_box_r_canon ld LD k f pos buf q cst HWk Hfk Wk Hs ltac:(lia) ltac:(lia)) as [c1 E].
    rewrite E, (tsize_erase ld k HWk Hfk), addu64_small by lia.
    replace (rev acc ++ map erase (k :: rest)) with (rev (erase k :: acc) ++ map erase rest)
      by (cbn [rev map]; rewrite <- app_assoc; reflexivity).
    apply IH; rewrite ?(zlen_lenN (cenc k)); try assumption; lia.
Qed.

(* a canonical file = the concatenation of canonical top-level boxes: both loops deliver the same box sequence *)
Theorem file_boxes_agree : forall cs, Forall (cwf ld) cs -> (lenN (cencs cs) < 4294967296)%N ->
  fst (file_sr ld (cencs cs)) = Ok (map erase cs) /\ fst (file_r ld (cencs cs)) = Ok (map erase cs).
Proof.
  intros cs HW Hl.
  assert (Hs : zlen (cencs cs) < two63) by (rewrite zlen_lenN; unfold two63; lia).
  assert (Hf : zlen (cencs cs) + 1 < Z.of_nat (S (S (length (cencs cs))))) by (unfold zlen; lia).
  split.
  - apply (file_sr_canon cs HW Hl _ 0%N [] _ 0 cost0 (window_all _) eq_refl Hs ltac:(lia) Hf).
  - apply (file_r_canon cs HW Hl _ 0%N [] _ 0 cost0 (window_all _) eq_refl Hs ltac:(lia) Hf).
Qed.
End FILEC.
