(* C03LeafTruncProofs.v — the complement of C03_leaf_boxes_agree: a trun / senc / mdat box whose compact header announces
   MORE body bytes than are present.  DecodeBox fails (readBoxBody); DecodeBoxSR fails for trun and senc (the maxSize test) and,
   for mdat only, returns a box with empty Data and leaves the accumulated error set in the reader (mdat is exempt from the
   maxSize test and DecodeMdatSR does not return the error).  Such a string is not reproduced by either path. *)
From V.lib Require Import Base.
From V.c04 Require Import C04Model C04ReaderProofs C04ContainerProofs.
From V.c03 Require Import C03Model C03Spec C03CanonProofs C03LeafModel C03LeafProofs C03LeafBoxProofs.
Open Scope Z_scope.

Section TRUNC.
Variables (nm rest : list N) (size : N).
Hypothesis Hn : length nm = 4%nat.
Hypothesis Hsz : (8 <= size < 4294967296)%N.
Hypothesis Hshort : (lenN rest + 8 < size)%N.
Let bs : list N := be4 size ++ nm ++ rest.
Hypothesis Hs : zlen bs < two63.
Let h : hdr := mkH nm size 8.

Lemma t_hdr_r : decode_header (inew bs) = (Ok (HHdr h), ir_at bs 8 (allocn 8 cost0)).
Proof. apply hdr_r_headed; assumption. Qed.

Lemma t_hdr_sr : decode_header_sr (snew bs) = (Ok h, mkS (mkR bs 8 false) cost0).
Proof. apply hdr_sr_headed; assumption. Qed.

Lemma t_zlen : zlen bs = 8 + zlen rest.
Proof. apply headed_windows, Hn. Qed.

(* readBoxBody: the LimitReader delivers the bytes that are left, fewer than announced *)
Lemma t_body : exists s', read_box_body h (ir_at bs 8 (allocn 8 cost0)) = (Err, s').
Proof.
  pose proof t_zlen as Hz. rewrite !zlen_lenN in Hz.
  unfold read_box_body. cbn [hlen hsize h]. replace (8 =? size)%N with false by lia.
  rewrite subu64_small by lia. unfold int_of_u64. rewrite w64_id by (unfold two63; lia).
  unfold read_limited. replace (Z.of_N (size - 8) <=? 0) with false by lia.
  unfold iavail, ir_at. cbn [ibuf ipos icost].
  replace (N.min (Z.to_N (Z.of_N (size - 8))) (lenN bs - Z.to_N 8)) with (lenN rest) by lia.
  match goal with |- context [zlen ?d =? _] => assert (Hd : zlen d = Z.of_N (lenN rest)) end.
  { unfold zlen. rewrite firstn_length, skipn_length. unfold lenN in *. lia. }
  rewrite Hd. replace (Z.of_N (lenN rest) =? Z.of_N (size - 8)) with false by lia. eexists. reflexivity.
Qed.

Lemma t_maxsize : (addu64 (u64z (nr_remaining (mkR bs 8 false))) 8 <? size)%N = true.
Proof.
  pose proof t_zlen as Hz. unfold nr_remaining, rlen. cbn [rerr rbuf rpos]. pose proof (zlen_nonneg rest).
  rewrite w64_id by (unfold two63 in *; lia).
  unfold u64z, two64. rewrite Z.mod_small by (unfold two63 in *; lia).
  rewrite (zlen_lenN rest) in *. rewrite addu64_small by (unfold two63 in *; lia). lia.
Qed.

Lemma trunc_r : nm = name_trun \/ nm = name_senc \/ nm = name_mdat -> leafbox_r bs = Err.
Proof.
  intros Hnm. unfold leafbox_r. rewrite t_hdr_r. change (hname h) with nm. destruct t_body as [s' HB].
  destruct Hnm as [E|[E|E]]; rewrite E.
  - change (eqb_name name_trun name_trun) with true. cbv iota. unfold trun_r. rewrite HB. reflexivity.
  - change (eqb_name name_senc name_trun) with false. change (eqb_name name_senc name_senc) with true. cbv iota.
    unfold senc_r. destruct (hsize h <? 16)%N; [reflexivity|]. rewrite HB. reflexivity.
  - change (eqb_name name_mdat name_trun) with false. change (eqb_name name_mdat name_senc) with false.
    change (eqb_name name_mdat name_mdat) with true. cbv iota. unfold mdat_r. rewrite HB. reflexivity.
Qed.

Lemma trunc_sr_leaf : nm = name_trun \/ nm = name_senc -> leafbox_sr bs = Err.
Proof.
  intros Hnm. unfold leafbox_sr. rewrite t_hdr_sr. cbn [sr]. change (hname h) with nm. change (hsize h) with size. change (hlen h) with 8%N.
  rewrite t_maxsize. destruct Hnm as [E|E]; rewrite E.
  - change (eqb_name name_trun name_mdat) with false. reflexivity.
  - change (eqb_name name_senc name_mdat) with false. reflexivity.
Qed.

Lemma trunc_sr_mdat : nm = name_mdat -> leafbox_sr bs = Ok (LMdat (mkMdat [] false), 8, true).
Proof.
  intros E. unfold leafbox_sr. rewrite t_hdr_sr. cbn [sr]. change (hname h) with nm. change (hsize h) with size. change (hlen h) with 8%N.
  rewrite E. change (eqb_name name_mdat name_mdat) with true. cbn [negb]. rewrite andb_false_r.
  change (eqb_name name_mdat name_trun) with false. change (eqb_name name_mdat name_senc) with false. cbv iota.
  unfold mdat_sr.
  assert (Hpl : payload_len h = Z.of_N (size - 8)).
  { unfold h. replace size with (8 + (size - 8))%N at 1 by lia. apply payload_len_eq. lia. }
  rewrite Hpl. unfold read_bytes. replace (Z.of_N (size - 8) <? 0) with false by lia. cbn [rerr rpos].
  unfold rlen. cbn [rbuf]. rewrite t_zlen. rewrite (zlen_lenN rest).
  replace (8 >? 8 + Z.of_N (lenN rest) - Z.of_N (size - 8)) with true by lia.
  cbn [rbind with_err rpos rerr rbuf]. reflexivity.
Qed.
End TRUNC.

Theorem leaf_boxes_truncated : forall nm rest size,
  nm = name_trun \/ nm = name_senc \/ nm = name_mdat ->
  (8 <= size < 4294967296)%N -> (lenN rest + 8 < size)%N -> zlen (be4 size ++ nm ++ rest) < two63 ->
  leafbox_r (be4 size ++ nm ++ rest) = Err /\
  (nm <> name_mdat -> leafbox_sr (be4 size ++ nm ++ rest) = Err) /\
  (nm = name_mdat -> leafbox_sr (be4 size ++ nm ++ rest) = Ok (LMdat (mkMdat [] false), 8, true)).
Proof.
  intros nm rest size Hnm Hsz Hshort Hs.
  assert (Hn : length nm = 4%nat) by (destruct Hnm as [E|[E|E]]; subst nm; reflexivity).
  split; [apply trunc_r; assumption|]. split.
  - intros Hne. apply trunc_sr_leaf; try assumption. destruct Hnm as [E|[E|E]]; [left; exact E|right; exact E|contradiction].
  - intros E. apply trunc_sr_mdat; assumption.
Qed.
