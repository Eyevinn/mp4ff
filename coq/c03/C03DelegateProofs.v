(* C03DelegateProofs.v — soundness of the delegation pattern used by the ~125 reader-path decoders that read the box body and
   hand a private FixedSliceReader over it to their SR twin: for every SR decoder that only uses position-relative reads
   (local_prog), a run over the private body reader that ends without accumulated error returns the same value as the run on
   the caller's reader in which the body sits anywhere, and that run stops at the same relative position without error.
   (The decoders that used RemainingBytes / LookAhead past the box - colr, dac3/dec3, meta: findings C03-F3..F5 - are exactly
   the non-local ones.)
   The argument is made once, for reader programs with positions relative to the entry (xprog) over any set of operations that
   frame one by one; the first-round programs (sprog) and their operations are the instance of this file, the zero-terminated
   strings that of C03DelegateExtProofs.v. *)
From V.lib Require Import Base.
From V.c04 Require Import C04Model C04ReaderProofs C04ContainerProofs.
From V.c03 Require Import C03Model C03Spec C03CanonProofs C03LeafModel.
Open Scope Z_scope.

Definition two62 : Z := 4611686018427387904.

(* one operation on the private reader over b, at offset i, that leaves no error: it stayed inside b, and before b in any
   buffer below [bound] bytes it delivers the same value and advances as far *)
Definition frames_at (bound : Z) (o : rop) (b : list N) (i : Z) (v : rval) (s1 : rstate) : Prop :=
  exists j, s1 = mkR b j false /\ i <= j <= zlen b /\
    forall buf q, window buf q b -> zlen buf < bound -> rstep (mkR buf (q + i) false) o = Ok (v, mkR buf (q + j) false).

(* ---------------------------------------------------------------- programs over operations that frame *)
Section FRAMING.
Variable okop : rop -> bool.
Variable bound : Z.
Hypothesis step_frames : forall o b i v s1, okop o = true -> 0 <= i <= zlen b -> zlen b < two62 ->
  rstep (mkR b i false) o = Ok (v, s1) -> rerr s1 = false -> frames_at bound o b i v s1.
(* the accumulated error is sticky *)
Hypothesis step_sticky : forall o s v s1, okop o = true -> rstep s o = Ok (v, s1) -> rerr s = true -> rerr s1 = true.

Fixpoint ok_xprog {A} (p : xprog A) : Prop :=
  match p with
  | XOp o k => okop o = true /\ forall v, ok_xprog (k v)
  | XRelPos k => forall z, ok_xprog (k z)
  | _ => True
  end.

Lemma run_sticky {A} : forall (p : xprog A) o s a s', ok_xprog p -> run_xprog o p s = Ok (a, s') -> rerr s = true -> rerr s' = true.
Proof.
  induction p as [a0| |op k IH|k IH]; intros o s a s' Hl E He; cbn [run_xprog] in E.
  - inversion E; subst. exact He.
  - discriminate.
  - destruct Hl as [Ho Hk]. destruct (rstep s op) as [[v s1]| | |] eqn:Er; cbn [rbind] in E; try discriminate.
    apply (IH v o s1 a s' (Hk v) E). apply (step_sticky op s v s1 Ho Er He).
  - apply (IH _ o s a s' (Hl _) E He).
Qed.

Theorem framing_sound : forall A (p : xprog A), ok_xprog p -> forall o b i a s', 0 <= i <= zlen b -> zlen b < two62 ->
  run_xprog o p (mkR b i false) = Ok (a, s') -> rerr s' = false ->
  exists j, s' = mkR b j false /\
    forall buf q, window buf q b -> zlen buf < bound -> run_xprog (q + o) p (mkR buf (q + i) false) = Ok (a, mkR buf (q + j) false).
Proof.
  induction p as [a0| |op k IH|k IH]; intros Hl o b i a s' Hi Hb E He; cbn [run_xprog] in E |- *.
  - inversion E; subst. exists i. split; reflexivity.
  - discriminate.
  - destruct Hl as [Ho Hk]. destruct (rstep (mkR b i false) op) as [[v s1]| | |] eqn:Er; cbn [rbind] in E; try discriminate.
    (* an error after this step would still be there at the end *)
    assert (He1 : rerr s1 = false).
    { destruct (rerr s1) eqn:X; [|reflexivity]. rewrite (run_sticky (k v) o s1 a s' (Hk v) E X) in He. discriminate. }
    destruct (step_frames op b i v s1 Ho Hi Hb Er He1) as (j1 & -> & Hj1 & F1).
    destruct (IH v (Hk v) o b j1 a s' ltac:(lia) Hb E He) as (j & -> & F2).
    exists j. split; [reflexivity|]. intros buf q W Hs. cbn [run_xprog]. rewrite (F1 buf q W Hs). cbn [rbind]. apply F2; assumption.
  - destruct (IH _ (Hl _) o b i a s' Hi Hb E He) as (j & -> & F2). exists j. split; [reflexivity|].
    intros buf q W Hs. cbn [run_xprog rpos]. replace (q + i - (q + o)) with (i - o) by lia. apply F2; assumption.
Qed.
End FRAMING.

(* ---------------------------------------------------------------- the operations *)
(* the reads that can leave an error behind: out of bounds they set it, in bounds they are the reads of C03CanonProofs.v *)
Lemma read_fixed_frames k (w : N -> rval) b i v s1 : 0 <= i <= zlen b -> 0 <= k ->
  (do r <- read_fixed k (mkR b i false); Ok (w (fst r), snd r)) = Ok (v, s1) -> rerr s1 = false ->
  exists j, s1 = mkR b j false /\ i <= j <= zlen b /\
    forall buf q, window buf q b -> (do r <- read_fixed k (mkR buf (q + i) false); Ok (w (fst r), snd r)) = Ok (v, mkR buf (q + j) false).
Proof.
  intros Hi Hk E He. destruct (Z_le_gt_dec (i + k) (zlen b)) as [Hin|Hout].
  - change (mkR b i false) with (mkR b (0 + i) false) in E. rewrite (read_fixed_at k b 0 b i (window_all b)) in E by lia. cbn [rbind fst snd] in E. inversion E; subst v s1.
    exists (i + k). split; [reflexivity|]. split; [lia|]. intros buf q W. rewrite (read_fixed_at k buf q b i W) by lia. reflexivity.
  - unfold read_fixed, rlen in E. cbn [rerr rpos rbuf] in E. replace (i >? zlen b - k) with true in E by lia.
    cbn [rbind fst snd] in E. inversion E; subst. discriminate He.
Qed.

Lemma rstep_frame o b i v s1 : local_op o = true -> 0 <= i <= zlen b -> zlen b < two62 ->
  rstep (mkR b i false) o = Ok (v, s1) -> rerr s1 = false -> frames_at two63 o b i v s1.
Proof.
  intros Hl Hi Hb E He. unfold frames_at.
  assert (RF : forall k (w : N -> rval), 0 <= k -> (do r <- read_fixed k (mkR b i false); Ok (w (fst r), snd r)) = Ok (v, s1) ->
               exists j, s1 = mkR b j false /\ i <= j <= zlen b /\
                 forall buf q, window buf q b -> zlen buf < two63 ->
                   (do r <- read_fixed k (mkR buf (q + i) false); Ok (w (fst r), snd r)) = Ok (v, mkR buf (q + j) false)).
  { intros k w Hk E'. destruct (read_fixed_frames k w b i v s1 Hi Hk E' He) as (j & Hs1 & Hj & F). exists j. auto. }
  destruct o; cbn [local_op] in Hl; try discriminate; cbn [rstep] in E |- *.
  - exact (RF 1 VN ltac:(lia) E).
  - exact (RF 2 VN ltac:(lia) E).
  - exact (RF 2 (fun x => VZ (to_signed 16 x)) ltac:(lia) E).
  - exact (RF 3 VN ltac:(lia) E).
  - exact (RF 4 VN ltac:(lia) E).
  - exact (RF 4 (fun x => VZ (to_signed 32 x)) ltac:(lia) E).
  - exact (RF 8 VN ltac:(lia) E).
  - exact (RF 8 (fun x => VZ (to_signed 64 x)) ltac:(lia) E).
  - (* RFixedStr *)
    assert (Hn : 0 <= n < two62) by (unfold two62; lia). destruct (Z_le_gt_dec (i + n) (zlen b)) as [Hin|Hout].
    + change (mkR b i false) with (mkR b (0 + i) false) in E.
      rewrite (read_fixed_string_at n b 0 b i (window_all b)) in E by (unfold two62, two63 in *; lia).
      cbn [rbind fst snd] in E. inversion E; subst v s1.
      exists (i + n). split; [reflexivity|]. split; [lia|]. intros buf q W Hs. rewrite (read_fixed_string_at n buf q b i W) by lia. reflexivity.
    + unfold read_fixed_string, rlen in E. cbn [rerr rpos rbuf] in E. rewrite (w64_id (zlen b - n)) in E by (unfold two62, two63 in *; lia).
      replace (i >? zlen b - n) with true in E by lia. cbn [rbind fst snd] in E. inversion E; subst. discriminate He.
  - (* RBytes *)
    destruct (Z_lt_ge_dec n 0) as [Hneg|Hn]; [|destruct (Z_le_gt_dec (i + n) (zlen b)) as [Hin|Hout]].
    + unfold read_bytes in E. replace (n <? 0) with true in E by lia. cbn [rbind fst snd] in E. inversion E; subst. discriminate He.
    + change (mkR b i false) with (mkR b (0 + i) false) in E. rewrite (read_bytes_at n b 0 b i (window_all b)) in E by lia.
      cbn [rbind fst snd] in E. inversion E; subst v s1.
      exists (i + n). split; [reflexivity|]. split; [lia|]. intros buf q W Hs. rewrite (read_bytes_at n buf q b i W) by lia. reflexivity.
    + unfold read_bytes, rlen in E. cbn [rerr rpos rbuf] in E. replace (n <? 0) with false in E by lia.
      replace (i >? zlen b - n) with true in E by lia. cbn [rbind fst snd] in E. inversion E; subst. discriminate He.
  - (* RSkip *)
    inversion E; subst v s1. destruct (Z_le_gt_dec (i + n) (zlen b)) as [Hin|Hout].
    + change (mkR b i false) with (mkR b (0 + i) false). rewrite (skip_bytes_at n b 0 b i (window_all b)) by (unfold two62, two63 in *; lia).
      exists (i + n). split; [reflexivity|]. split; [lia|]. intros buf q W Hs. rewrite (skip_bytes_at n buf q b i W) by lia. reflexivity.
    + unfold skip_bytes, rlen in He. cbn [rerr rpos rbuf] in He. rewrite w64_id in He by (unfold two62, two63 in *; lia).
      replace (i + n >? zlen b) with true in He by lia. discriminate He.
  - (* RAccError *)
    inversion E; subst v s1. exists i. split; [reflexivity|]. split; [lia|]. reflexivity.
Qed.

Lemma rstep_err_sticky o s v s1 : local_op o = true -> rstep s o = Ok (v, s1) -> rerr s = true -> rerr s1 = true.
Proof.
  intros Hl E He.
  assert (RF : forall k (w : N -> rval), (do r <- read_fixed k s; Ok (w (fst r), snd r)) = Ok (v, s1) -> rerr s1 = true).
  { intros k w E'. unfold read_fixed in E'. rewrite He in E'. cbn [rbind fst snd] in E'. inversion E'; subst. exact He. }
  destruct o; cbn [local_op] in Hl; try discriminate; cbn [rstep] in E.
  - exact (RF 1 VN E).
  - exact (RF 2 VN E).
  - exact (RF 2 (fun x => VZ (to_signed 16 x)) E).
  - exact (RF 3 VN E).
  - exact (RF 4 VN E).
  - exact (RF 4 (fun x => VZ (to_signed 32 x)) E).
  - exact (RF 8 VN E).
  - exact (RF 8 (fun x => VZ (to_signed 64 x)) E).
  - unfold read_fixed_string in E. rewrite He in E. cbn [rbind fst snd] in E. inversion E; subst. exact He.
  - unfold read_bytes in E. destruct (n <? 0); [cbn [rbind fst snd] in E; inversion E; subst; reflexivity|].
    rewrite He in E. cbn [rbind fst snd] in E. inversion E; subst. exact He.
  - inversion E; subst. unfold skip_bytes. rewrite He. exact He.
  - inversion E; subst. exact He.
Qed.

(* ---------------------------------------------------------------- the first-round programs are programs with relative positions *)
Lemma xprog_of_sprog_run {A} (p : sprog A) : forall o s, run_xprog o (xprog_of_sprog p) s = run_sprog p s.
Proof.
  induction p as [a| |op k IH]; intros o s; cbn [run_xprog run_sprog xprog_of_sprog]; try reflexivity.
  destruct (rstep s op) as [[v s1]| | |]; cbn [rbind]; try reflexivity. apply IH.
Qed.

Lemma xprog_of_sprog_ok {A} (p : sprog A) : local_prog p -> ok_xprog local_op (xprog_of_sprog p).
Proof. induction p as [a| |o k IH]; intros H; try exact I. destruct H as [Ho Hk]. split; [exact Ho|]. intros v. apply IH, Hk. Qed.

(* ---------------------------------------------------------------- the delegation pattern *)
(* reader path: readBoxBody delivered `body`, the SR decoder runs on NewFixedSliceReader(body) and ends without error;
   SR path: the same decoder on the caller's reader positioned at the body *)
Theorem delegate_sound : forall A (p : sprog A) body a s', local_prog p -> zlen body < two62 ->
  run_sprog p (rnew body) = Ok (a, s') -> rerr s' = false ->
  forall buf q, window buf q body -> zlen buf < two63 ->
    run_sprog p (mkR buf q false) = Ok (a, mkR buf (q + rpos s') false).
Proof.
  intros A p body a s' Hl Hb E He buf q W Hs. rewrite <- (xprog_of_sprog_run p 0) in E.
  destruct (framing_sound local_op two63 rstep_frame rstep_err_sticky A _ (xprog_of_sprog_ok p Hl) 0 body 0 a s'
              ltac:(pose proof (zlen_nonneg body); lia) Hb E He) as (j & -> & F).
  specialize (F buf q W Hs). rewrite xprog_of_sprog_run, Z.add_0_r in F. exact F.
Qed.

(* ---------------------------------------------------------------- reader programs: the pair in the form the decoders use it *)
Theorem prog_pair_agree : forall A (p : sprog A) (consult : bool) body a s', local_prog p -> zlen body < two62 ->
  run_sprog p (rnew body) = Ok (a, s') -> rerr s' = false ->
  forall buf q, window buf q body -> zlen buf < two63 ->
    prog_body_r consult p body = Ok a /\ prog_sr p (mkR buf q false) = Ok (a, mkR buf (q + rpos s') false).
Proof.
  intros A p consult body a s' Hl Hb E He buf q W Hs. split.
  - unfold prog_body_r. rewrite E. cbn [rbind]. rewrite He, andb_false_r. reflexivity.
  - unfold prog_sr. rewrite (delegate_sound A p body a s' Hl Hb E He buf q W Hs). cbn [rbind rerr]. reflexivity.
Qed.

Lemma mfhd_local : local_prog mfhd_prog_sr.
Proof. split; [reflexivity|]. intros v. split; [reflexivity|]. intros w. exact I. Qed.

Lemma tfdt_local : local_prog tfdt_prog_sr.
Proof.
  split; [reflexivity|]. intros v. destruct (vN v / 16777216 =? 0)%N; (split; [reflexivity|]); intros w; exact I.
Qed.

Lemma opt_read_local present o k : local_op o = true -> (forall x, local_prog (k x)) -> local_prog (opt_read present o k).
Proof. intros Ho Hk. unfold opt_read. destruct present; [split; [exact Ho|intros v; apply Hk]|apply Hk]. Qed.

Lemma tfhd_local : local_prog tfhd_prog.
Proof.
  split; [reflexivity|]. intros vf. split; [reflexivity|]. intros tid.
  apply opt_read_local; [reflexivity|]. intros bdo. apply opt_read_local; [reflexivity|]. intros sdi.
  apply opt_read_local; [reflexivity|]. intros dur. apply opt_read_local; [reflexivity|]. intros dsz.
  apply opt_read_local; [reflexivity|]. intros dfl. exact I.
Qed.

(* mfhd: the two separately written decoders agree on every body of at least 8 bytes (shorter bodies: DecodeMfhd returns a box with
   zeros because it does not consult its reader's error, DecodeMfhdSR fails or reads on; such a box is never reproduced) *)
Theorem mfhd_pair_agree : forall body buf q, 8 <= zlen body < two62 -> window buf q body -> zlen buf < two63 ->
  exists a, prog_body_r false mfhd_prog_r body = Ok a /\ prog_sr mfhd_prog_sr (mkR buf q false) = Ok (a, mkR buf (q + 8) false).
Proof.
  intros body buf q Hb W Hs. eexists. change mfhd_prog_r with mfhd_prog_sr.
  apply (prog_pair_agree _ mfhd_prog_sr false body _ (mkR body 8 false) mfhd_local ltac:(lia)); [|reflexivity|exact W|exact Hs].
  unfold mfhd_prog_sr, rnew. cbn [run_sprog rstep]. change (mkR body 0 false) with (mkR body (0 + 0) false).
  rewrite (read_fixed_at 4 _ _ _ _ (window_all body)) by lia. cbn [rbind fst snd].
  rewrite (read_fixed_at 4 _ _ _ _ (window_all body)) by lia. reflexivity.
Qed.
