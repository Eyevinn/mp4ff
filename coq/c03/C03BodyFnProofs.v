(* C03BodyFnProofs.v — two more classes of decoder pairs found by the source-fact extractor.

   BODY-FUNCTION pairs (avcC, hvcC, av1C, dac3, dec3 ...): the reader-path decoder is
       data, err := readBoxBody(r, hdr); if err != nil { return nil, err }; REST(data)
   and the SliceReader-path decoder is REST applied to sr.ReadBytes(hdr.payloadLen()) - bound to a local first (then
   `if sr.AccError() != nil { return nil, sr.AccError() }` may follow) or used in place -, REST not touching the reader: both are the SAME
   pure function F of the body bytes.  Whenever the body is present (what readBoxBody delivers: exactly payloadLen bytes), the SR decoder
   on the caller's reader, the body anywhere in the buffer and anything after it, returns F(body), stands at the end of the body
   and has accumulated no error.

   CONTAINER TWINS whose SR decoder ends `return b, sr.AccError()` (edts, sinf, stbl): on a canonical box - at ANY position of the caller's
   buffer, so at any nesting depth - the reader has no accumulated error after the children, so the extra test never fires and the
   decoder is the KCont decoder of C03_decode_agree_canonical. *)
From V.lib Require Import Base.
From V.c04 Require Import C04Model.
From V.c03 Require Import C03Model C03Spec C03CanonProofs.
Open Scope Z_scope.

Section BodyFn.
Context {A : Type}.
Variable F : list N -> res A.          (* REST: the pure function of the body both decoders apply (Err: it returns an error) *)

(* reader path: readBoxBody delivered `body`; REST(body) *)
Definition bodyfn_r (body : list N) : res A := F body.

(* SliceReader path: data := sr.ReadBytes(n) with n = hdr.payloadLen(); [if sr.AccError() != nil { return nil, sr.AccError() };] REST(data) *)
Definition bodyfn_sr (check_acc : bool) (n : Z) (s : rstate) : res (A * rstate) :=
  match read_bytes n s with
  | Ok (data, s1) => if check_acc && rerr s1 then Err else match F data with Ok a => Ok (a, s1) | Err => Err | Panic => Panic | OutOfFuel => OutOfFuel end
  | Err => Err | Panic => Panic | OutOfFuel => OutOfFuel
  end.

Theorem bodyfn_pair_agree : forall check_acc body buf q, window buf q body ->
  bodyfn_sr check_acc (zlen body) (mkR buf q false)
  = match bodyfn_r body with
    | Ok a => Ok (a, mkR buf (q + zlen body) false)
    | Err => Err | Panic => Panic | OutOfFuel => OutOfFuel
    end.
Proof.
  intros c body buf q W. unfold bodyfn_sr, bodyfn_r. rewrite (read_bytes_window _ _ _ W).
  cbn [rerr]. rewrite andb_false_r. destruct (F body); reflexivity.
Qed.

(* the test of the accumulated error is needed only when the body is NOT there: then the variant with the test fails, the variant
   without it applies REST to the empty slice ReadBytes returns *)
Theorem bodyfn_short : forall check_acc n buf pos, 0 <= pos -> zlen buf - pos < n -> zlen buf < two63 ->
  bodyfn_sr check_acc n (mkR buf pos false) =
  if check_acc then Err else match F [] with Ok a => Ok (a, mkR buf pos true) | Err => Err | Panic => Panic | OutOfFuel => OutOfFuel end.
Proof.
  intros c n buf pos Hp Hn Hs. unfold bodyfn_sr, read_bytes. cbn [rerr rpos]. unfold rlen. cbn [rbuf].
  destruct (n <? 0) eqn:En.
  - unfold with_err. cbn [rbuf rpos rerr]. rewrite andb_true_r. destruct c; [reflexivity|]. destruct (F []); reflexivity.
  - replace (pos >? zlen buf - n) with true by lia. unfold with_err. cbn [rbuf rpos rerr]. rewrite andb_true_r.
    destruct c; [reflexivity|]. destruct (F []); reflexivity.
Qed.
End BodyFn.

(* ---------------------------------------------------------------- container twins with sr.AccError() *)
Section TwinAcc.
Variable ld : leafdec.

(* DecodeXxxSR of a twin whose last statement is `return b, sr.AccError()`: the KCont decoder, then the test *)
Definition twin_accerr_sr (fuel : nat) (sp : N) (s : sst) : res tree * sst :=
  match dec_box_sr ld fuel sp s with
  | (Ok t, s') => if rerr (sr s') then (Err, s') else (Ok t, s')
  | x => x
  end.

Theorem twin_accerr_canonical : forall c, cwf ld c -> fits c ->
  forall fuel sp buf q cst, window buf q (cenc c) -> zlen buf < two63 -> (sp + lenN (cenc c) < 18446744073709551616)%N ->
    twin_accerr_sr fuel sp (sr_at buf q cst) = dec_box_sr ld fuel sp (sr_at buf q cst) /\
    canon_out (dec_box_sr ld fuel sp (sr_at buf q cst)) (erase c) (fun s' => rerr (sr s') = false).
Proof.
  intros c Hw Hf fuel sp buf q cst W Hs Hsp. unfold twin_accerr_sr.
  pose proof (box_canon_sr_all ld c Hw Hf fuel sp buf q cst W Hs Hsp) as C.
  destruct (dec_box_sr ld fuel sp (sr_at buf q cst)) as [r s'].
  destruct C as [Ho|[Ho Hst]]; cbn [fst snd] in *; subst r.
  - split; [reflexivity|]. left. reflexivity.
  - rewrite Hst. cbn [rerr]. split; [reflexivity|]. right. cbn [fst snd]. rewrite Hst. split; reflexivity.
Qed.
End TwinAcc.
