(* C03LeafInstProofs.v — the leaf pair models as the leaf decoders of the box loops: they satisfy the C04 leaf contract
   (never panic, stay inside the buffer), and every payload the reader-path decoder accepts is a canonical leaf, so that
   C03_decode_agree_canonical / C03_file_boxes_agree hold with trun, senc and mdat decoded by the pair models. *)
From V.lib Require Import Base.
From V.c04 Require Import C04Model C04ReaderProofs C04ContainerProofs.
From V.c03 Require Import C03Model C03Spec C03CanonProofs C03LeafModel C03LeafProofs C03LeafBoxProofs.
Open Scope Z_scope.

(* ---------------------------------------------------------------- totality of the reads (no bound on the buffer length) *)
Definition WInv (s : rstate) : Prop := 0 <= rpos s <= rlen s.

Lemma read_fixed_w k s : WInv s -> 0 <= k ->
  exists v s', read_fixed k s = Ok (v, s') /\ WInv s' /\ rbuf s' = rbuf s /\ rpos s <= rpos s'.
Proof.
  intros HI Hk. unfold read_fixed. destruct (rerr s).
  { eexists _, _. split; [reflexivity|]. repeat split; try apply HI; lia. }
  destruct (rpos s >? rlen s - k) eqn:E.
  { eexists _, _. split; [reflexivity|]. cbn. repeat split; try apply HI; lia. }
  destruct HI as [HI1 HI2].
  destruct (gslice_ok (rbuf s) (rpos s) (rpos s + k)) as [l Hl]; try (unfold rlen in *; lia).
  rewrite Hl. cbn [rbind]. eexists _, _. split; [reflexivity|].
  unfold WInv, with_pos, rlen in *. cbn. repeat split; lia.
Qed.

Lemma cond_read_w (c : bool) (d : N) s : WInv s ->
  exists v s', (if c then read_fixed 4 s else Ok (d, s)) = Ok (v, s') /\ WInv s' /\ rbuf s' = rbuf s /\ rpos s <= rpos s'.
Proof.
  intros HI. destruct c; [apply read_fixed_w; [exact HI|lia]|].
  exists d, s. split; [reflexivity|]. split; [exact HI|]. split; [reflexivity|lia].
Qed.

Lemma trun_samples_r_w : forall n first fl fsf s, WInv s ->
  exists l s', trun_samples_r n first fl fsf s = Ok (l, s') /\ WInv s' /\ rbuf s' = rbuf s /\ rpos s <= rpos s' /\ length l = n.
Proof.
  induction n as [|n IH]; intros first fl fsf s HI.
  - exists [], s. split; [reflexivity|]. split; [exact HI|]. split; [reflexivity|]. split; [lia|reflexivity].
  - cbn [trun_samples_r].
    destruct (cond_read_w (hasf fl 256) 0%N s HI) as [v1 [s1 [E1 [I1 [B1 P1]]]]]. rewrite E1. cbn [rbind].
    destruct (cond_read_w (hasf fl 512) 0%N s1 I1) as [v2 [s2 [E2 [I2 [B2 P2]]]]]. rewrite E2. cbn [rbind].
    destruct (cond_read_w (hasf fl 1024) (if hasf fl 4 && first then fsf else 0)%N s2 I2) as [v3 [s3 [E3 [I3 [B3 P3]]]]]. rewrite E3. cbn [rbind].
    destruct (cond_read_w (hasf fl 2048) 0%N s3 I3) as [v4 [s4 [E4 [I4 [B4 P4]]]]]. rewrite E4. cbn [rbind].
    destruct (IH false fl fsf s4 I4) as [l [s5 [E5 [I5 [B5 [P5 L5]]]]]]. rewrite E5. cbn [rbind].
    eexists _, _. split; [reflexivity|]. split; [exact I5|]. split; [congruence|]. split; [lia|]. cbn [length]. congruence.
Qed.

(* a SliceReader-path leaf decoder step: a value and a state inside the same buffer, not before s; or an error *)
Definition okstep {A} (s : rstate) (r : res (A * rstate)) : Prop :=
  match r with
  | Ok (_, s') => WInv s' /\ rbuf s' = rbuf s /\ rpos s <= rpos s'
  | Err => True
  | _ => False
  end.

Lemma trun_sr_w h s : WInv s -> okstep s (trun_sr h s).
Proof.
  intros HI. unfold trun_sr.
  destruct (read_fixed_w 4 s HI ltac:(lia)) as [vf [s1 [E1 [I1 [B1 P1]]]]]. rewrite E1. cbn [rbind].
  destruct (read_fixed_w 4 s1 I1 ltac:(lia)) as [cnt [s2 [E2 [I2 [B2 P2]]]]]. rewrite E2. cbn [rbind].
  destruct (negb (hsize h =? trun_expected (N.land vf flags_mask) cnt)%N); [exact I|].
  destruct ((1024 <? cnt)%N && trun_no_sample_fields (N.land vf flags_mask)); [exact I|].
  destruct (cond_read_w (hasf (N.land vf flags_mask) 1) 0%N s2 I2) as [v3 [s3 [E3 [I3 [B3 P3]]]]]. rewrite E3. cbn [rbind].
  destruct (cond_read_w (hasf (N.land vf flags_mask) 4) 0%N s3 I3) as [v4 [s4 [E4 [I4 [B4 P4]]]]]. rewrite E4. cbn [rbind].
  rewrite <- trun_samples_twin.
  destruct (trun_samples_r_w (N.to_nat cnt) true (N.land vf flags_mask) v4 s4 I4) as [l [s5 [E5 [I5 [B5 [P5 _]]]]]]. rewrite E5. cbn [rbind].
  destruct (rerr s5); [exact I|]. cbn [okstep]. split; [exact I5|]. split; [congruence|lia].
Qed.

Lemma WInv_rnew data : WInv (rnew data).
Proof. unfold WInv, rnew, rlen. cbn [rpos rbuf]. pose proof (zlen_nonneg data). lia. Qed.

(* DecodeTrun on any body: an error, or a box whose Size() is the size the header announced (the count was tested against it) *)
Lemma trun_body_r_spec h data :
  match trun_body_r h data with
  | Ok t => (hsize h < 4294967296)%N -> trun_size t = hsize h
  | Err => True
  | _ => False
  end.
Proof.
  unfold trun_body_r.
  destruct (read_fixed_w 4 (rnew data) (WInv_rnew data) ltac:(lia)) as [vf [s1 [E1 [I1 [B1 P1]]]]]. rewrite E1. cbn [rbind].
  destruct (read_fixed_w 4 s1 I1 ltac:(lia)) as [cnt [s2 [E2 [I2 [B2 P2]]]]]. rewrite E2. cbn [rbind].
  set (fl := N.land vf flags_mask).
  destruct (hsize h =? trun_expected fl cnt)%N eqn:Esz; cbn [negb]; [|exact I].
  destruct ((1024 <? cnt)%N && trun_no_sample_fields fl) eqn:Ebig; [exact I|].
  destruct (cond_read_w (hasf fl 1) 0%N s2 I2) as [v3 [s3 [E3 [I3 [B3 P3]]]]]. rewrite E3. cbn [rbind].
  destruct (cond_read_w (hasf fl 4) 0%N s3 I3) as [v4 [s4 [E4 [I4 [B4 P4]]]]]. rewrite E4. cbn [rbind].
  destruct (trun_samples_r_w (N.to_nat cnt) true fl v4 s4 I4) as [l [s5 [E5 [_ [_ [_ L5]]]]]]. rewrite E5. cbn [rbind].
  intros H32. unfold trun_size. cbn [tr_flags tr_samples]. apply N.eqb_eq in Esz. rewrite Esz.
  assert (Hc : (cnt < 4294967296)%N).
  { unfold trun_expected, trun_bps, trun_no_sample_fields in *.
    destruct (hasf fl 256), (hasf fl 512), (hasf fl 1024), (hasf fl 2048), (hasf fl 1), (hasf fl 4); cbn [negb andb] in *; lia. }
  unfold lenN. rewrite L5, N2Nat.id. rewrite N.mod_small by exact Hc. reflexivity.
Qed.

Lemma trun_body_r_np h data : np (trun_body_r h data).
Proof. pose proof (trun_body_r_spec h data) as H. destruct (trun_body_r h data); try contradiction; exact I. Qed.

Lemma Inv_W s : Inv s -> WInv s.
Proof. intros [H _]. exact H. Qed.

Lemma senc_sr_w h s : Inv s -> okstep s (senc_sr h s).
Proof.
  intros HI. unfold senc_sr. destruct (hsize h <? 16)%N; [exact I|].
  destruct (read_fixed_spec 4 s HI ltac:(lia)) as [vf [s1 [E1 [I1 [B1 [P1 _]]]]]]. rewrite E1. cbn [rbind].
  destruct (0 <? vf / 16777216)%N; [exact I|].
  destruct (read_fixed_spec 4 s1 I1 ltac:(lia)) as [cnt [s2 [E2 [I2 [B2 [P2 _]]]]]]. rewrite E2. cbn [rbind].
  destruct (w64 (payload_len h - 8) <? 0); [exact I|].
  destruct (hasf (N.land vf flags_mask) 2 && (u64z (w64 (payload_len h - 8)) <? 2 * cnt)%N); [exact I|].
  destruct (read_bytes_spec (w64 (payload_len h - 8)) s2 I2) as [raw [s3 [E3 [I3 [B3 P3]]]]]. rewrite E3. cbn [rbind].
  destruct (rerr s3); [exact I|]. cbn [okstep]. split; [apply Inv_W; exact I3|]. split; [congruence|lia].
Qed.

Lemma senc_body_r_np h data : np (senc_body_r h data).
Proof.
  unfold senc_body_r. destruct (zlen data <? 8) eqn:E8; [exact I|].
  destruct (gslice_ok data 0 4) as [l1 G1]; try lia. rewrite G1. cbn [rbind].
  destruct (0 <? be l1 0 / 16777216)%N; [exact I|].
  destruct (gslice_ok data 4 8) as [l2 G2]; try lia. rewrite G2. cbn [rbind].
  destruct (gslice_ok data 8 (zlen data)) as [l3 G3]; try lia. rewrite G3. cbn [rbind].
  destruct (hasf (N.land (be l1 0) flags_mask) 2 && (zlen l3 <? 2 * Z.of_N (be l2 0))); exact I.
Qed.

Lemma mdat_sr_w h s : Inv s -> okstep s (mdat_sr h s).
Proof.
  intros HI. unfold mdat_sr.
  destruct (read_bytes_spec (payload_len h) s HI) as [d [s1 [E [I1 [B1 P1]]]]]. rewrite E. cbn [rbind okstep].
  split; [apply Inv_W; exact I1|]. split; [congruence|lia].
Qed.

(* ---------------------------------------------------------------- readBoxBody on every reader state *)
Lemma read_box_body_spec h s : (ipos s <= lenN (ibuf s))%N ->
  exists rb s', read_box_body h s = (rb, s') /\ np rb /\ ibuf s' = ibuf s /\
    (ipos s <= ipos s' <= lenN (ibuf s))%N /\ T (icost s') <= T (icost s) + (Z.of_N (ipos s') - Z.of_N (ipos s)).
Proof.
  intros HI. unfold read_box_body.
  destruct (hlen h =? hsize h)%N.
  { eexists _, _. split; [reflexivity|]. cbn. repeat split; try lia. }
  unfold read_limited.
  destruct (int_of_u64 (subu64 (hsize h) (hlen h)) <=? 0) eqn:En.
  { destruct (zlen (@nil N) =? int_of_u64 (subu64 (hsize h) (hlen h))); eexists _, _; (split; [reflexivity|]); cbn; repeat split; try lia. }
  set (k := N.min (Z.to_N (int_of_u64 (subu64 (hsize h) (hlen h)))) (iavail s)).
  assert (Hk : (k <= lenN (ibuf s) - ipos s)%N) by (subst k; unfold iavail; lia).
  match goal with |- context [zlen ?d =? ?x] => destruct (zlen d =? x) end;
    eexists _, _; (split; [reflexivity|]); cbn [np ibuf ipos icost]; rewrite ?T_alloc; repeat split; try exact I; try lia.
Qed.

(* ---------------------------------------------------------------- the leaf contract *)
Lemma wrap_sr_ok {A} (size : A -> N) (r : res (A * rstate)) s : Inv (sr s) -> okstep (sr s) r ->
  exists r' s', wrap_sr size r s = (r', s') /\ np r' /\ Inv (sr s') /\ rbuf (sr s') = rbuf (sr s) /\
    rpos (sr s) <= rpos (sr s') /\ T (scost s') <= T (scost s) + (rpos (sr s') - rpos (sr s)) + 1.
Proof.
  intros HI Hok. unfold wrap_sr. destruct r as [[v r']| | |]; cbn [okstep] in Hok; try contradiction.
  - destruct Hok as [W [B P]]. eexists _, _. split; [reflexivity|]. cbn [np sr scost].
    split; [exact I|]. split; [|split; [exact B|split; [exact P|lia]]].
    unfold Inv, WInv, rlen in *. rewrite B in W |- *. destruct HI. lia.
  - eexists _, _. split; [reflexivity|]. cbn [np]. split; [exact I|]. split; [exact HI|]. split; [reflexivity|]. lia.
Qed.

Lemma wrap_r_ok {A} (size : A -> N) (f : list N -> res A) h s : (forall d, np (f d)) -> (ipos s <= lenN (ibuf s))%N ->
  exists r s', wrap_r size (let '(rb, s1) := read_box_body h s in (do data <- rb; f data, s1)) = (r, s') /\ np r /\ ibuf s' = ibuf s /\
    (ipos s <= ipos s' <= lenN (ibuf s))%N /\ T (icost s') <= T (icost s) + (Z.of_N (ipos s') - Z.of_N (ipos s)) + 1.
Proof.
  intros Hf HI. destruct (read_box_body_spec h s HI) as [rb [s1 [E [NP [B [P C]]]]]]. rewrite E. unfold wrap_r. cbn [fst snd].
  eexists _, _. split; [reflexivity|]. split; [|split; [exact B|split; [exact P|lia]]].
  destruct rb as [d| | |]; cbn [rbind np] in *; try contradiction; try exact I.
  specialize (Hf d). destruct (f d); cbn [rbind np] in *; try contradiction; exact I.
Qed.

Theorem pair_leaves_ok : leaf_ok pair_leaves.
Proof.
  constructor.
  - intros h s HI. cbn [ld_sr pair_leaves]. unfold pair_sr.
    destruct (eqb_name (hname h) name_trun); [apply wrap_sr_ok; [exact HI|apply trun_sr_w, Inv_W, HI]|].
    destruct (eqb_name (hname h) name_senc); [apply wrap_sr_ok; [exact HI|apply senc_sr_w, HI]|].
    destruct (eqb_name (hname h) name_mdat); [apply wrap_sr_ok; [exact HI|apply mdat_sr_w, HI]|].
    apply (leaf_sr_ok std_leaves std_leaves_ok). exact HI.
  - intros h s HI. cbn [ld_r pair_leaves]. unfold pair_r.
    destruct (eqb_name (hname h) name_trun); [apply (wrap_r_ok trun_size (trun_body_r h)); [apply trun_body_r_np|exact HI]|].
    destruct (eqb_name (hname h) name_senc).
    { unfold senc_r. destruct (hsize h <? 16)%N.
      - eexists _, _. split; [reflexivity|]. cbn. repeat split; lia.
      - apply (wrap_r_ok senc_size (fun d => do v <- senc_body_r h d; Ok (senc_fix v))); [|exact HI].
        intros d. pose proof (senc_body_r_np h d) as H. destruct (senc_body_r h d); cbn [rbind np] in *; try contradiction; exact I. }
    destruct (eqb_name (hname h) name_mdat).
    { apply (wrap_r_ok mdatv_size (fun d => Ok (mkMdat d (8 <? hlen h)%N))); [intros; exact I|exact HI]. }
    apply (leaf_r_ok std_leaves std_leaves_ok). exact HI.
Qed.

(* ---------------------------------------------------------------- accepted payloads are canonical leaves *)
(* a pair whose reader-path decoder is readBoxBody followed by F, and whose two decoders agree (C03LeafProofs.v) on the payload p
   with value v: behind a header of hl bytes announcing p, both leaf decoders of pair_leaves deliver Size() = size v *)
Lemma pair_contract {A} (hl : N) nm p (size : A -> N) (F : list N -> res A) (fsr : rstate -> res (A * rstate)) v :
  (hl + lenN p < 9223372036854775808)%N -> F p = Ok v -> size v = (hl + lenN p)%N ->
  (forall buf q, window buf q p -> zlen buf < two63 -> agree_at (F p) (fsr (mkR buf q false)) buf (q + zlen p)) ->
  (forall pre post cst, zlen (pre ++ p ++ post) < two63 -> exists cst',
     wrap_sr size (fsr (mkR (pre ++ p ++ post) (zlen pre) false)) (mkS (mkR (pre ++ p ++ post) (zlen pre) false) cst)
     = (Ok (hl + lenN p)%N, mkS (mkR (pre ++ p ++ post) (zlen pre + zlen p) false) cst')) /\
  (forall pre post cst, zlen (pre ++ p ++ post) < two63 -> exists cst',
     wrap_r size (let '(rb, s1) := read_box_body (mkH nm (hl + lenN p) hl) (mkI (pre ++ p ++ post) (lenN pre) cst) in (do data <- rb; F data, s1))
     = (Ok (hl + lenN p)%N, mkI (pre ++ p ++ post) (lenN pre + lenN p) cst')).
Proof.
  intros Hl Hv Hsz HA. split; intros pre post cst Hall.
  - specialize (HA _ _ (window_mid pre p post) Hall). unfold agree_at in HA. rewrite Hv in HA. rewrite HA. unfold wrap_sr. rewrite Hsz. eexists. reflexivity.
  - destruct (read_box_body_mid nm hl p pre post cst Hl) as [c' HB]. rewrite HB. unfold wrap_r. cbn [fst snd rbind].
    rewrite Hv. cbn [rbind]. rewrite Hsz. eexists. reflexivity.
Qed.

Lemma pair_canon_trun p t : (lenN p < 4294967288)%N ->
  trun_body_r (mkH name_trun (8 + lenN p) 8) p = Ok t -> canon_leaf pair_leaves name_trun p.
Proof.
  intros Hl Ht. split; [reflexivity|].
  apply (pair_contract 8 name_trun p trun_size (trun_body_r (mkH name_trun (8 + lenN p) 8)) (trun_sr (mkH name_trun (8 + lenN p) 8)) t);
    [lia|exact Ht| |].
  { pose proof (trun_body_r_spec (mkH name_trun (8 + lenN p) 8) p) as H. rewrite Ht in H. apply H. cbn [hsize]. lia. }
  intros buf q. apply trun_pair_window. reflexivity.
Qed.

Lemma senc_size_of_body h p v : hlen h = 8%N -> (16 <= hsize h < 4294967296)%N -> senc_after_body_r h p = Ok v -> senc_size v = hsize h.
Proof.
  intros Hhl H32. unfold senc_after_body_r. replace (hsize h <? 16)%N with false by lia.
  destruct (senc_body_r h p) as [w| | |] eqn:Eb; cbn [rbind]; try discriminate.
  intros H. inversion H. subst v.
  assert (Hrs : se_read_size w = hsize h).
  { unfold senc_body_r in Eb. destruct (zlen p <? 8); [discriminate|].
    destruct (gslice p 0 4); cbn [rbind] in Eb; try discriminate.
    destruct (0 <? be a 0 / 16777216)%N; [discriminate|].
    destruct (gslice p 4 8); cbn [rbind] in Eb; try discriminate.
    destruct (gslice p 8 (zlen p)); cbn [rbind] in Eb; try discriminate.
    destruct (hasf (N.land (be a 0) flags_mask) 2 && (zlen a1 <? 2 * Z.of_N (be a0 0))); [discriminate|].
    inversion Eb. cbn [se_read_size]. unfold senc_read_size. rewrite Hhl, subu64_small, addu64_small by lia. lia. }
  unfold senc_size, senc_fix. destruct ((se_count w =? 0)%N || (lenN (se_raw w) =? 0)%N); cbn [se_read_size]; rewrite Hrs;
    replace (0 <? hsize h)%N with true by lia; reflexivity.
Qed.

Lemma pair_canon_senc p v : (8 <= lenN p < 4294967288)%N ->
  senc_after_body_r (mkH name_senc (8 + lenN p) 8) p = Ok v -> canon_leaf pair_leaves name_senc p.
Proof.
  intros Hl Hv. set (h := mkH name_senc (8 + lenN p) 8) in *. split; [reflexivity|].
  assert (G : (hsize h <? 16)%N = false) by (cbn [hsize h]; lia).
  pose proof (pair_contract 8 name_senc p senc_size (fun d => do w <- senc_body_r h d; Ok (senc_fix w)) (senc_sr h) v) as C.
  cbn [ld_sr ld_r pair_leaves]. unfold pair_sr, pair_r, senc_r. fold h in C |- *. unfold senc_after_body_r in Hv. rewrite G in *.
  apply C; [lia|exact Hv|apply (senc_size_of_body h p v); [reflexivity|cbn [hsize h]; lia|unfold senc_after_body_r; rewrite G; exact Hv]|].
  intros buf q W Hall. pose proof (senc_pair_window h p buf q (or_introl eq_refl) eq_refl ltac:(cbn [hsize h]; lia) W Hall) as HA.
  unfold senc_after_body_r in HA. rewrite G in HA. exact HA.
Qed.

(* mdat behind either header: LargeSize = (Hdrlen > 8) on both paths, Size() = Hdrlen + len *)
Lemma pair_contract_mdat (large : bool) p : (hdr_len large + lenN p < 4294967296)%N -> (large = false -> (lenN p <= max_normal_payload)%N) ->
  leaf_contract (hdr_len large) pair_leaves name_mdat p.
Proof.
  intros Hl Hm. set (h := mkH name_mdat (hdr_len large + lenN p) (hdr_len large)). split; [reflexivity|].
  apply (pair_contract (hdr_len large) name_mdat p mdatv_size (fun d => Ok (mkMdat d (8 <? hlen h)%N)) (mdat_sr h) (mkMdat p (8 <? hlen h)%N));
    [lia|reflexivity| |].
  - unfold mdatv_size. cbn [md_data md_large hlen h]. replace (8 <? hdr_len large)%N with large by (destruct large; reflexivity).
    apply mdat_size_hl; assumption.
  - intros buf q W _. apply mdat_pair_window; [destruct large; [right|left]; reflexivity|reflexivity|cbn [hsize h]; lia|exact W].
Qed.

Lemma pair_canon_mdat p : (lenN p <= max_normal_payload)%N -> canon_leaf pair_leaves name_mdat p.
Proof. intros Hl. apply (pair_contract_mdat false); [unfold max_normal_payload in Hl; cbn [hdr_len]; lia|intros _; exact Hl]. Qed.

Lemma pair_canon_large_mdat p : (lenN p < 4294967280)%N -> canon_large pair_leaves name_mdat p.
Proof. intros Hl. apply (pair_contract_mdat true); [cbn [hdr_len]; lia|discriminate]. Qed.

(* every other leaf type: the C04 standard leaves *)
Lemma pair_canon_std nm p :
  eqb_name nm name_trun = false -> eqb_name nm name_senc = false -> eqb_name nm name_mdat = false ->
  std_canon_ok nm p -> canon_leaf pair_leaves nm p.
Proof.
  intros E1 E2 E3 Hstd. destruct (std_canon_leaf nm p Hstd) as [Hk [Hsr Hr]].
  split; [exact Hk|]. split.
  - intros pre post cst Hall. cbn [ld_sr pair_leaves]. unfold pair_sr. cbn [hname]. rewrite E1, E2, E3. apply Hsr. exact Hall.
  - intros pre post cst Hall. cbn [ld_r pair_leaves]. unfold pair_r. cbn [hname]. rewrite E1, E2, E3. apply Hr. exact Hall.
Qed.

(* ---------------------------------------------------------------- the framing theorems with the pair models as leaves *)
Theorem pair_decode_agree_canonical : forall c, cwf pair_leaves c -> fits c ->
  fst (box_sr pair_leaves (cenc c)) = Ok (erase c) /\ fst (box_r pair_leaves (cenc c)) = Ok (BBox (erase c)).
Proof. intros c Hw Hf. apply decode_agree_canonical; [exact pair_leaves_ok|exact Hw|exact Hf]. Qed.

Theorem pair_file_boxes_agree : forall cs, Forall (cwf pair_leaves) cs -> (lenN (cencs cs) < 4294967296)%N ->
  fst (file_sr pair_leaves (cencs cs)) = Ok (map erase cs) /\ fst (file_r pair_leaves (cencs cs)) = Ok (map erase cs).
Proof. intros cs Hw Hl. apply file_boxes_agree; [exact pair_leaves_ok|exact Hw|exact Hl]. Qed.
