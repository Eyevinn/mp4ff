(* C03LeafBoxProofs.v — DecodeBox and DecodeBoxSR on one trun / senc / mdat box with a compact header whose size field is
   8 + the number of body bytes present, followed by ANY bytes: both reject, or both accept with the same decoded value,
   the same Size() and the same number of bytes consumed, and the SliceReader carries no accumulated error. *)
From V.lib Require Import Base.
From V.c04 Require Import C04Model C04ReaderProofs C04ContainerProofs.
From V.c03 Require Import C03Model C03Spec C03CanonProofs C03LeafModel C03LeafProofs.
Open Scope Z_scope.

Definition framed (nm body post : list N) : list N := be4 (8 + lenN body) ++ nm ++ body ++ post.

Definition boxes_agree (bs : list N) (n : N) : Prop :=
  match leafbox_r bs with
  | Ok (v, k) => leafbox_sr bs = Ok (v, Z.of_N k, false) /\ k = n
  | Err => leafbox_sr bs = Err
  | _ => False
  end.

(* a string that starts with a compact header: what both header decoders deliver, and what stands behind the header *)
Section HEADED.
Variables (nm rest : list N) (size : N).
Hypothesis Hn : length nm = 4%nat.
Hypothesis Hsz : (8 <= size < 4294967296)%N.
Let bs : list N := be4 size ++ nm ++ rest.

Lemma headed_windows : window bs 0 (hdr_bytes false nm size) /\ window bs 8 rest /\ zlen bs = 8 + zlen rest.
Proof.
  assert (E : bs = [] ++ (hdr_bytes false nm size ++ rest) ++ []).
  { unfold bs, hdr_bytes. rewrite !app_nil_r, <- app_assoc. reflexivity. }
  pose proof (window_mid [] (hdr_bytes false nm size ++ rest) []) as W. rewrite <- E in W.
  apply window_app in W. rewrite (zlen_hdr_bytes false) in W by exact Hn. split; [apply W|]. split; [apply W|].
  rewrite E, app_nil_r. cbn [app]. rewrite zlen_app, (zlen_hdr_bytes false) by exact Hn. reflexivity.
Qed.

Lemma hdr_r_headed : decode_header (inew bs) = (Ok (HHdr (mkH nm size 8)), ir_at bs 8 (allocn 8 cost0)).
Proof. apply (hdr_r_canon false nm size bs 0 cost0 Hn Hsz), headed_windows. Qed.

Lemma hdr_sr_headed : zlen bs < two63 -> decode_header_sr (snew bs) = (Ok (mkH nm size 8), mkS (mkR bs 8 false) cost0).
Proof. intros Hs. apply (hdr_sr_canon false nm size bs 0 cost0 Hn Hsz); [apply headed_windows|exact Hs]. Qed.
End HEADED.

Section FRAMED.
Variables (nm body post : list N).
Hypothesis Hn : length nm = 4%nat.
Hypothesis Hl : (lenN body < 4294967288)%N.
Hypothesis Hs : zlen (framed nm body post) < two63.

Let bs : list N := framed nm body post.
Let h : hdr := mkH nm (8 + lenN body) 8.

Lemma framed_window : window bs 8 body.
Proof. destruct (headed_windows nm (body ++ post) (8 + lenN body) Hn) as (_ & W & _). apply window_app in W. apply W. Qed.

(* both headers, and DecodeBoxSR's size test *)
Lemma hdr_r_framed : decode_header (inew bs) = (Ok (HHdr h), ir_at bs 8 (allocn 8 cost0)).
Proof. apply hdr_r_headed; [exact Hn|lia]. Qed.

Lemma hdr_sr_framed : decode_header_sr (snew bs) = (Ok h, mkS (mkR bs 8 false) cost0).
Proof. apply hdr_sr_headed; [exact Hn|lia|exact Hs]. Qed.

Lemma maxsize_framed : (addu64 (u64z (nr_remaining (mkR bs 8 false))) 8 <? 8 + lenN body)%N = false.
Proof.
  destruct (window_range _ _ _ framed_window). pose proof (zlen_nonneg body).
  apply maxsize_ok; try exact Hs; rewrite ?(zlen_lenN body) in *; lia.
Qed.

(* one of the three pairs behind the header: the reader path reads the body and applies fr, the SliceReader path runs fsr *)
Lemma pair_box_agree {A} (inj : A -> leafval) (fr : res A) (fsr : res (A * rstate)) :
  agree_at fr fsr bs (8 + zlen body) ->
  match (do t <- fr; Ok (inj t, ipos (ir_at bs (8 + zlen body) cost0))) with
  | Ok (v, k) => (do (t, r2) <- fsr; Ok (inj t, rpos r2, rerr r2)) = Ok (v, Z.of_N k, false) /\ k = (8 + lenN body)%N
  | Err => (do (t, r2) <- fsr; Ok (inj t, rpos r2, rerr r2)) = Err
  | _ => False
  end.
Proof.
  unfold agree_at. pose proof (zlen_nonneg body).
  destruct fr as [t| | |]; intros HA; try contradiction; rewrite HA; cbn [rbind rpos rerr ir_at ipos]; [|reflexivity].
  rewrite Z2N.id by lia. split; [reflexivity|]. rewrite zlen_lenN. lia.
Qed.

Lemma body_framed c : exists c', read_box_body h (ir_at bs 8 c) = (Ok body, ir_at bs (8 + zlen body) c').
Proof. apply (read_box_body_window nm 8); [apply framed_window|lia]. Qed.

Lemma trun_box_agree : nm = name_trun -> boxes_agree bs (8 + lenN body).
Proof.
  intros Enm. unfold boxes_agree, leafbox_r, leafbox_sr. rewrite hdr_r_framed, hdr_sr_framed. cbn [sr hname hsize hlen h].
  rewrite maxsize_framed. cbn [andb]. rewrite Enm. change (eqb_name name_trun name_trun) with true. cbv iota.
  unfold trun_r. destruct (body_framed (allocn 8 cost0)) as [c' HB]. rewrite HB.
  apply (pair_box_agree LTrun), trun_pair_window; [reflexivity|apply framed_window|exact Hs].
Qed.

Lemma senc_box_agree : nm = name_senc -> boxes_agree bs (8 + lenN body).
Proof.
  intros Enm. unfold boxes_agree, leafbox_r, leafbox_sr. rewrite hdr_r_framed, hdr_sr_framed. cbn [sr hname hsize hlen h].
  rewrite maxsize_framed. cbn [andb]. rewrite Enm.
  change (eqb_name name_senc name_trun) with false. change (eqb_name name_senc name_senc) with true. cbv iota.
  assert (HA : agree_at (senc_after_body_r h body) (senc_sr h (mkR bs 8 false)) bs (8 + zlen body)).
  { apply senc_pair_window; [left; reflexivity|reflexivity|cbn [hsize h]; lia|apply framed_window|exact Hs]. }
  unfold senc_after_body_r in HA. unfold senc_r. destruct (hsize h <? 16)%N; [exact (pair_box_agree LSenc _ _ HA)|].
  destruct (body_framed (allocn 8 cost0)) as [c' HB]. rewrite HB. exact (pair_box_agree LSenc _ _ HA).
Qed.

Lemma mdat_box_agree : nm = name_mdat -> boxes_agree bs (8 + lenN body).
Proof.
  intros Enm. unfold boxes_agree, leafbox_r, leafbox_sr. rewrite hdr_r_framed, hdr_sr_framed. cbn [sr hname hsize hlen h].
  rewrite maxsize_framed. cbn [andb]. rewrite Enm.
  change (eqb_name name_mdat name_trun) with false. change (eqb_name name_mdat name_senc) with false.
  change (eqb_name name_mdat name_mdat) with true. cbv iota.
  unfold mdat_r. destruct (body_framed (allocn 8 cost0)) as [c' HB]. rewrite HB.
  apply (pair_box_agree LMdat (Ok (mkMdat body (8 <? hlen h)%N))), mdat_pair_window;
    [left; reflexivity|reflexivity|cbn [hsize h]; lia|apply framed_window].
Qed.
End FRAMED.

Theorem leaf_boxes_agree : forall nm body post,
  nm = name_trun \/ nm = name_senc \/ nm = name_mdat ->
  (lenN body < 4294967288)%N -> zlen (framed nm body post) < two63 ->
  boxes_agree (framed nm body post) (8 + lenN body).
Proof.
  intros nm body post [E|[E|E]] Hl Hs; [apply trun_box_agree|apply senc_box_agree|apply mdat_box_agree];
    try assumption; subst nm; reflexivity.
Qed.
