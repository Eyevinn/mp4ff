(* C03LeafProofs.v — the two decoders of each separately written leaf pair (trun, senc, mdat) agree:
   on the same box body they both fail or both return the same value, the SliceReader decoder consuming exactly the body,
   wherever the body sits in the caller's buffer.  The guard is the compact 8-byte header (the canonical form: every
   encoder of these boxes except mdat writes it); for the 16-byte header trun and senc really differ (witnesses below).
   The reader-path decoder works on a private reader over the body: the body itself, read from position 0. *)
From V.lib Require Import Base.
From V.c04 Require Import C04Model C04ReaderProofs C04ContainerProofs.
From V.c03 Require Import C03Model C03Spec C03CanonProofs C03LeafModel.
Open Scope Z_scope.

(* a read guarded by a flag: `if t.HasX() { x = s.ReadUint32() }` *)
Lemma cond_read_at (c : bool) (d : N) buf q x i : window buf q x -> 0 <= i -> i + (if c then 4 else 0) <= zlen x ->
  (if c then read_fixed 4 (mkR buf (q + i) false) else Ok (d, mkR buf (q + i) false))
  = Ok (if c then be (sub x i 4) 0 else d, mkR buf (q + (i + (if c then 4 else 0))) false).
Proof. intros W Hi Hl. destruct c; [apply (read_fixed_at 4 _ _ _ _ W); lia|rewrite Z.add_0_r; reflexivity]. Qed.

Definition zbps (fl : N) : Z := Z.of_N (trun_bps fl).

Lemma zbps_eq fl : zbps fl = (if hasf fl 256 then 4 else 0) + (if hasf fl 512 then 4 else 0) + (if hasf fl 1024 then 4 else 0) + (if hasf fl 2048 then 4 else 0).
Proof. unfold zbps, trun_bps. destruct (hasf fl 256), (hasf fl 512), (hasf fl 1024), (hasf fl 2048); reflexivity. Qed.

(* ---------------------------------------------------------------- trun *)
(* the sample loops of DecodeTrun and DecodeTrunSR are the same text *)
Lemma trun_samples_twin : trun_samples_r = trun_samples_sr.
Proof. reflexivity. Qed.

(* n samples from offset i of x: the list depends on x alone *)
Lemma trun_samples_at x fl fsf : forall n first i, 0 <= i -> i + Z.of_nat n * zbps fl <= zlen x ->
  exists l, length l = n /\ forall buf q, window buf q x ->
    trun_samples_sr n first fl fsf (mkR buf (q + i) false) = Ok (l, mkR buf (q + (i + Z.of_nat n * zbps fl)) false).
Proof.
  induction n as [|n IH]; intros first i Hi Hl.
  - exists []. split; [reflexivity|]. intros buf q W. cbn [trun_samples_sr]. rewrite Z.mul_0_l, Z.add_0_r. reflexivity.
  - pose proof (zbps_eq fl) as Hb. pose proof (N2Z.is_nonneg (trun_bps fl)) as Hnn. fold (zbps fl) in Hnn.
    destruct (IH false (i + zbps fl)) as (rest & Hlen & F); [lia..|].
    eexists (_ :: rest). split; [cbn [length]; rewrite Hlen; reflexivity|]. intros buf q W. cbn [trun_samples_sr].
    rewrite (cond_read_at (hasf fl 256) 0%N _ _ _ _ W) by (destruct (hasf fl 256), (hasf fl 512), (hasf fl 1024), (hasf fl 2048); lia). cbn [rbind].
    rewrite (cond_read_at (hasf fl 512) 0%N _ _ _ _ W) by (destruct (hasf fl 256), (hasf fl 512), (hasf fl 1024), (hasf fl 2048); lia). cbn [rbind].
    rewrite (cond_read_at (hasf fl 1024) _ _ _ _ _ W) by (destruct (hasf fl 256), (hasf fl 512), (hasf fl 1024), (hasf fl 2048); lia). cbn [rbind].
    rewrite (cond_read_at (hasf fl 2048) 0%N _ _ _ _ W) by (destruct (hasf fl 256), (hasf fl 512), (hasf fl 1024), (hasf fl 2048); lia). cbn [rbind].
    match goal with |- context [trun_samples_sr n false fl fsf (mkR buf (q + ?j) false)] => replace j with (i + zbps fl) by lia end.
    rewrite (F buf q W). cbn [rbind]. replace (i + zbps fl + Z.of_nat n * zbps fl) with (i + Z.of_nat (S n) * zbps fl) by lia. reflexivity.
Qed.

(* what "the two decoders agree on this body" means: the reader-path result r1 against the SliceReader-path result r2
   obtained on the buffer buf in which the body ends at position e *)
Definition agree_at {A} (r1 : res A) (r2 : res (A * rstate)) (buf : list N) (e : Z) : Prop :=
  match r1 with
  | Ok v => r2 = Ok (v, mkR buf e false)
  | Err => r2 = Err
  | _ => False
  end.

Theorem trun_pair_window : forall h body buf q,
  hsize h = (8 + lenN body)%N -> window buf q body -> zlen buf < two63 ->
  agree_at (trun_body_r h body) (trun_sr h (mkR buf q false)) buf (q + zlen body).
Proof.
  intros h body buf q Hsz W Hs. pose proof (window_all body) as W0.
  assert (Hb63 : zlen body < two63) by (destruct (window_range _ _ _ W); lia).
  unfold trun_body_r, trun_sr, agree_at, rnew.
  destruct (Z_lt_le_dec (zlen body) 8) as [Hshort|Hlong].
  - (* fewer than 8 body bytes: whatever the two readers deliver, expectedSize >= 16 > hdr.Size *)
    assert (Hexp : forall fl cnt, (hsize h =? trun_expected fl cnt)%N = false) by (intros; unfold trun_expected; pose proof (zlen_lenN body); lia).
    destruct (read_fixed_spec 4 _ (Inv_window _ _ _ W0 Hb63) ltac:(lia))
      as [vf [s1 [E1 [I1 _]]]]. rewrite E1. cbn [rbind].
    destruct (read_fixed_spec 4 s1 I1 ltac:(lia)) as [cnt [s2 [E2 _]]]. rewrite E2. cbn [rbind].
    destruct (read_fixed_spec 4 _ (Inv_window _ _ _ W Hs) ltac:(lia)) as [vf' [t1 [F1 [J1 _]]]]. rewrite F1. cbn [rbind].
    destruct (read_fixed_spec 4 t1 J1 ltac:(lia)) as [cnt' [t2 [F2 _]]]. rewrite F2. cbn [rbind]. rewrite !Hexp. reflexivity.
  - (* both read version/flags and the count from the body, and make the same tests *)
    change (mkR body 0 false) with (mkR body (0 + 0) false). replace (mkR buf q false) with (mkR buf (q + 0) false) by (rewrite Z.add_0_r; reflexivity).
    rewrite !(read_fixed_at 4 _ _ _ 0 W0), !(read_fixed_at 4 _ _ _ 0 W) by lia. cbn [rbind].
    rewrite !(read_fixed_at 4 _ _ _ _ W0), !(read_fixed_at 4 _ _ _ _ W) by lia. cbn [rbind].
    set (fl := N.land (be (sub body 0 4) 0) flags_mask). set (cnt := be (sub body (0 + 4) 4) 0).
    destruct (hsize h =? trun_expected fl cnt)%N eqn:Esz; cbn [negb]; [|reflexivity].
    destruct ((1024 <? cnt)%N && trun_no_sample_fields fl); [reflexivity|]. apply N.eqb_eq in Esz.
    (* the body holds exactly what the remaining reads need *)
    assert (Hneed : zlen body = 8 + (if hasf fl 1 then 4 else 0) + (if hasf fl 4 then 4 else 0) + Z.of_N cnt * zbps fl).
    { rewrite zlen_lenN. unfold trun_expected in Esz. unfold zbps. destruct (hasf fl 1), (hasf fl 4); lia. }
    pose proof (N2Z.is_nonneg (trun_bps fl)) as Hbnn. fold (zbps fl) in Hbnn.
    assert (Hcb : 0 <= Z.of_N cnt * zbps fl) by (apply Z.mul_nonneg_nonneg; lia).
    rewrite !(cond_read_at (hasf fl 1) 0%N _ _ _ _ W0), !(cond_read_at (hasf fl 1) 0%N _ _ _ _ W) by (destruct (hasf fl 1), (hasf fl 4); lia).
    cbn [rbind].
    rewrite !(cond_read_at (hasf fl 4) 0%N _ _ _ _ W0), !(cond_read_at (hasf fl 4) 0%N _ _ _ _ W) by (destruct (hasf fl 1), (hasf fl 4); lia).
    cbn [rbind]. rewrite trun_samples_twin.
    match goal with |- context [trun_samples_sr _ true fl ?fsf (mkR body (0 + ?i) false)] =>
      destruct (trun_samples_at body fl fsf (N.to_nat cnt) true i) as (l & _ & F) end;
      [destruct (hasf fl 1), (hasf fl 4); lia|rewrite N_nat_Z; destruct (hasf fl 1), (hasf fl 4); lia|].
    rewrite (F _ _ W0), (F _ _ W). cbn [rbind rerr]. repeat f_equal. rewrite N_nat_Z. destruct (hasf fl 1), (hasf fl 4); lia.
Qed.

(* ---------------------------------------------------------------- senc *)
(* DecodeSenc after readBoxBody, with its leading `hdr.Size < 16` test *)
Definition senc_after_body_r (h : hdr) (body : list N) : res senc :=
  if (hsize h <? 16)%N then Err else do v <- senc_body_r h body; Ok (senc_fix v).

Theorem senc_pair_window : forall h body buf q,
  (hlen h = 8 \/ hlen h = 16)%N -> hsize h = (hlen h + lenN body)%N -> (hsize h < 9223372036854775808)%N ->
  window buf q body -> zlen buf < two63 ->
  agree_at (senc_after_body_r h body) (senc_sr h (mkR buf q false)) buf (q + zlen body).
Proof.
  intros h body buf q Hhl Hsz H63 W Hs.
  assert (Hb63 : zlen body < two63) by (destruct (window_range _ _ _ W); lia).
  unfold senc_after_body_r, senc_sr, agree_at. destruct (hsize h <? 16)%N eqn:E16; [reflexivity|].
  pose proof (zlen_nonneg body) as Hnn.
  assert (Hpl : w64 (payload_len h - 8) = zlen body - 8).
  { destruct h as [nm sz hl]. cbn [hsize hlen] in *. subst sz. rewrite payload_len_eq by lia.
    rewrite <- zlen_lenN. apply w64_id. unfold two63. rewrite zlen_lenN. lia. }
  rewrite Hpl. unfold senc_body_r.
  destruct (Z_lt_le_dec (zlen body) 8) as [Hshort|Hb8].
  - (* fewer than 8 body bytes (only behind a 16-byte header): len(data) < 8 on one path, nrDataBytes < 0 on the other *)
    replace (zlen body <? 8) with true by lia.
    destruct (read_fixed_spec 4 _ (Inv_window _ _ _ W Hs) ltac:(lia)) as [vf [t1 [F1 [J1 _]]]]. rewrite F1. cbn [rbind].
    destruct (0 <? vf / 16777216)%N; [reflexivity|].
    destruct (read_fixed_spec 4 t1 J1 ltac:(lia)) as [cnt [t2 [F2 _]]]. rewrite F2. cbn [rbind].
    replace (zlen body - 8 <? 0) with true by lia. reflexivity.
  - replace (zlen body <? 8) with false by lia. replace (mkR buf q false) with (mkR buf (q + 0) false) by (rewrite Z.add_0_r; reflexivity).
    rewrite (gslice_sub body 0 4), (read_fixed_at 4 _ _ _ 0 W) by lia. cbn [rbind]. change (4 - 0) with 4.
    destruct (0 <? be (sub body 0 4) 0 / 16777216)%N; [reflexivity|].
    rewrite (gslice_sub body 4 8), (read_fixed_at 4 _ _ _ _ W) by lia. cbn [rbind]. change (8 - 4) with 4. change (0 + 4) with 4.
    replace (zlen body - 8 <? 0) with false by lia.
    (* the raw payload: data[8:] on one side, ReadBytes(payloadLen - 8) on the other; the two sub-sample size tests are the same test *)
    rewrite (gslice_sub body 8 (zlen body)), (read_bytes_at (zlen body - 8) _ _ _ _ W) by lia. cbn [rbind]. change (4 + 4) with 8.
    destruct (window_sub _ _ _ 8 (zlen body - 8) (window_all body)) as [_ Hrl]; try lia.
    replace (u64z (zlen body - 8) <? 2 * be (sub body 4 4) 0)%N with (zlen (sub body 8 (zlen body - 8)) <? 2 * Z.of_N (be (sub body 4 4) 0)).
    2:{ rewrite Hrl. unfold u64z, two64. rewrite Z.mod_small by (unfold two63 in *; lia). lia. }
    destruct (hasf _ 2 && _)%bool; [reflexivity|]. cbn [rerr]. replace (8 + (zlen body - 8)) with (zlen body) by lia. reflexivity.
Qed.

(* ---------------------------------------------------------------- mdat: compact or 16-byte header, LargeSize on both paths *)
Theorem mdat_pair_window : forall h body buf q,
  (hlen h = 8 \/ hlen h = 16)%N -> hsize h = (hlen h + lenN body)%N -> (hsize h < 9223372036854775808)%N ->
  window buf q body ->
  agree_at (Ok (mkMdat body (8 <? hlen h)%N)) (mdat_sr h (mkR buf q false)) buf (q + zlen body).
Proof.
  intros h body buf q Hhl Hsz H63 W. unfold agree_at, mdat_sr.
  replace (payload_len h) with (zlen body).
  2:{ destruct h as [nm sz hl]. cbn [hsize hlen] in *. subst sz. rewrite payload_len_eq, zlen_lenN by lia. reflexivity. }
  rewrite (read_bytes_window _ _ _ W). reflexivity.
Qed.

(* ---------------------------------------------------------------- the compact-header guard is exact *)
(* trun behind a 16-byte header (size 24: version/flags 0x000100, sample_count 2 and NO sample bytes): expectedSize(2) = 24 =
   hdr.Size holds, DecodeTrun reads two durations past the end of its private body reader (zeros, error not consulted) and
   accepts; DecodeTrunSR reads them from the caller's reader: error at the end of the buffer, or the following bytes. *)
Definition trun_large_hdr : hdr := mkH name_trun 24 16.
Definition trun_large_body : list N := [0;0;1;0; 0;0;0;2]%N.
Lemma trun_large_header_differs :
  trun_body_r trun_large_hdr trun_large_body = Ok (mkTrun 0 256 0 0 [mkTS 0 0 0 0; mkTS 0 0 0 0]) /\
  trun_sr trun_large_hdr (rnew trun_large_body) = Err /\
  (exists t s, trun_sr trun_large_hdr (rnew (trun_large_body ++ [0;0;0;7; 0;0;0;9]%N)) = Ok (t, s) /\
               tr_samples t = [mkTS 0 7 0 0; mkTS 0 9 0 0]).
Proof. split; [vm_compute; reflexivity|]. split; [vm_compute; reflexivity|]. eexists _, _. vm_compute. split; reflexivity. Qed.

(* senc behind a 16-byte header (size 25, flags 2, sample_count 1, one raw byte): at the pinned text DecodeSenc tested
   len(rawData) = 1 < 2 and rejected while DecodeSencSR tested hdr.Size - 16 = 9 >= 2 and accepted; since b8f1424 both reject *)
Definition senc_large_hdr : hdr := mkH name_senc 25 16.
Definition senc_large_body : list N := [0;0;0;2; 0;0;0;1; 170]%N.
Lemma senc_large_header_agrees :
  senc_after_body_r senc_large_hdr senc_large_body = Err /\ senc_sr senc_large_hdr (rnew senc_large_body) = Err.
Proof. split; vm_compute; reflexivity. Qed.
