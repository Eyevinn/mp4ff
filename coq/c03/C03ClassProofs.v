(* C03ClassProofs.v — the generated source facts (C03Facts.v) against the classification policy (C03FactsDefs.v), the registry
   exported by the running library (C03Registry.v) and the dispatch table of the framing model (C04Model.std_kind). *)
From V.lib Require Import Base.
From V.c04 Require Import C04Model.
From V.c03 Require Import C03Registry C03FactsDefs C03Facts.
From Coq Require Import String.
Open Scope N_scope.

(* every registered box type has exactly one fact line, in the order of the registry (source extractor vs running library) *)
Lemma facts_cover_registry : map df_key c03_decoder_facts = keys_decoders /\ map df_key c03_decoder_facts = keys_decoders_sr.
Proof. split; vm_compute; reflexivity. Qed.

(* every pair is in a class covered by a theorem, or is named in the policy as explored *)
Lemma all_decoders_ok : forallb dec_ok c03_decoder_facts = true.
Proof. vm_compute. reflexivity. Qed.

Lemma all_encoders_ok : forallb enc_ok c03_encoder_facts = true.
Proof. vm_compute. reflexivity. Qed.

(* the framing model's dispatch (std_kind: the instance used in the correspondence) agrees with the source classes *)
Definition kind_matches (f : decfact) : bool :=
  match std_kind (df_key f) with
  | KContBody a => dclass_eqb (df_class f) CContainerBody && Bool.eqb (df_accerr f) a
  | KCont => dclass_eqb (df_class f) CContainerTwin && negb (df_accerr f)
  | KLeaf => negb (dclass_eqb (df_class f) CContainerBody)
  end &&
  (if dclass_eqb (df_class f) CPureTwin || dclass_eqb (df_class f) CRawBody || dclass_eqb (df_class f) CBodyFn
   then match std_kind (df_key f) with KLeaf => true | _ => false end else true).
Lemma kinds_match : forallb kind_matches c03_decoder_facts = true.
Proof. vm_compute. reflexivity. Qed.

Lemma smem_In x l : smem x l = true -> In x l.
Proof. unfold smem. intros H. apply existsb_exists in H. destruct H as [y [Hy He]]. apply String.eqb_eq in He. subst. exact Hy. Qed.

Theorem all_pairs_classified :
  (forall k, In k keys_decoders ->
     exists f, In f c03_decoder_facts /\ df_key f = k /\
       match df_class f with
       | CDelegating => df_relative f = true
                        \/ In (df_r f) c03_delegating_nonrelative_proved \/ In (df_r f) c03_delegating_nonrelative_explored
       | CContainerTwin => True
       | CContainerBody => std_kind k = KContBody (df_accerr f)
       | CPureTwin | CRawBody | CBodyFn => std_kind k = KLeaf
       | CSeparate => In (df_r f) c03_separate_proved \/ In (df_r f) c03_separate_explored
       end).
Proof.
  intros k Hk. destruct facts_cover_registry as [Hr _]. rewrite <- Hr in Hk.
  apply in_map_iff in Hk. destruct Hk as [f [Hf Hin]]. exists f. split; [exact Hin|]. split; [exact Hf|].
  pose proof (proj1 (forallb_forall _ _) all_decoders_ok f Hin) as Hok. unfold dec_ok in Hok.
  pose proof (proj1 (forallb_forall _ _) kinds_match f Hin) as Hkm. unfold kind_matches in Hkm. rewrite Hf in Hkm.
  apply andb_prop in Hkm. destruct Hkm as [Hk1 Hk2].
  destruct (df_class f); cbn [dclass_eqb andb orb] in Hk1, Hk2; try exact I.
  - apply orb_prop in Hok. destruct Hok as [Hok|Hok]; [|right; right; apply smem_In; exact Hok].
    apply orb_prop in Hok. destruct Hok as [Hok|Hok]; [left; exact Hok|right; left; apply smem_In; exact Hok].
  - destruct (std_kind k) as [| |a]; try discriminate. apply Bool.eqb_prop in Hk1. rewrite Hk1. reflexivity.
  - destruct (std_kind k); try discriminate. reflexivity.
  - destruct (std_kind k); try discriminate. reflexivity.
  - destruct (std_kind k); try discriminate. reflexivity.
  - apply orb_prop in Hok. destruct Hok as [Hok|Hok]; [left|right]; apply smem_In; exact Hok.
Qed.

Theorem all_encoders_classified :
  forall f, In f c03_encoder_facts ->
    match ef_class f with
    | EDelegating | EContainer | EHeader => True
    | EPrelude => In (ef_type f) c03_enc_prelude_proved
    | ETwinDeleg => True
    | ETwin => In (ef_type f) c03_enc_twin_proved \/ In (ef_type f) c03_enc_twin_explored
    | ESeparate => In (ef_type f) c03_enc_separate_proved \/ In (ef_type f) c03_enc_separate_explored
    end.
Proof.
  intros f Hin. pose proof (proj1 (forallb_forall _ _) all_encoders_ok f Hin) as Hok.
  unfold enc_ok in Hok. destruct (ef_class f); try exact I; try (apply smem_In; exact Hok);
    (apply orb_prop in Hok; destruct Hok as [Hok|Hok]; [left|right]; apply smem_In; exact Hok).
Qed.

(* Encode with an idempotent prelude that EncodeSW repeats: same final state, same bytes, provided Size() covers what is written *)
Theorem enc_prelude_agree {S} (p : S -> S) (size : S -> N) (out : S -> option (list N)) (cap : N) (s : S) :
  (forall x, p (p x) = p x) ->
  (forall bs, out (p s) = Some bs -> N.of_nat (List.length bs) <= size (p s) /\ N.of_nat (List.length bs) <= cap) ->
  enc_prelude_w p size out s = enc_prelude_sw p cap out s.
Proof.
  intros Hp H. unfold enc_prelude_w, enc_prelude_sw. rewrite Hp. f_equal.
  destruct (out (p s)) as [bs|] eqn:E; [|reflexivity]. destruct (H bs eq_refl) as [H1 H2].
  unfold sw_run. apply N.leb_le in H1. apply N.leb_le in H2. rewrite H1, H2. reflexivity.
Qed.

(* Encode written as a call of EncodeSW produces what EncodeSW produces, provided Size() is at least the number of bytes
   written (and the caller's writer is large enough); the proviso is needed *)
Theorem enc_delegate_agree : forall size cap out,
  (forall bs, out = Some bs -> N.of_nat (List.length bs) <= size /\ N.of_nat (List.length bs) <= cap) ->
  enc_delegating_w size out = enc_direct_sw cap out.
Proof.
  intros size cap [bs|] H; [|reflexivity]. destruct (H bs eq_refl) as [H1 H2].
  unfold enc_delegating_w, enc_direct_sw, sw_run. apply N.leb_le in H1. apply N.leb_le in H2. rewrite H1, H2. reflexivity.
Qed.

Theorem enc_delegate_size_needed : exists size cap out, enc_delegating_w size out <> enc_direct_sw cap out.
Proof. exists 1, 2, (Some [0; 0]). vm_compute. discriminate. Qed.

Theorem confrec_enc_agree : forall hdr isize cap out,
  (forall bs, out = Some bs -> N.of_nat (List.length bs) <= isize /\ N.of_nat (List.length bs) <= cap) ->
  confrec_enc_w hdr isize out = confrec_enc_sw hdr cap out.
Proof.
  intros hdr isize cap out H. unfold confrec_enc_w, confrec_enc_sw. destruct hdr as [h|]; [|reflexivity].
  rewrite (enc_delegate_agree isize cap out H). reflexivity.
Qed.
