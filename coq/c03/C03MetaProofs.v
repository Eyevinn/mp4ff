(* C03MetaProofs.v — DecodeMeta / DecodeMetaSR on canonical meta boxes: the ISO form (version/flags word, canonical children, the four bytes
   the decoder looks at - the size field of the first child - not spelling "hdlr") and the QuickTime form (canonical children, the first one
   named hdlr).  Both decoders accept with the same value; LookAhead sees the same four bytes on the private and on the caller's reader. *)
From V.lib Require Import Base.
From V.c04 Require Import C04Model C04ReaderProofs C04ContainerProofs.
From V.c03 Require Import C03Model C03Spec C03Proofs C03CanonProofs C03LeafModel C03LeafProofs C03LeafBoxProofs C03StsdProofs C03MetaModel.
Open Scope Z_scope.

(* LookAhead(4, 4 bytes) in the middle of a buffer: a and b are the first two words at the reader's position *)
Lemma look_ahead_mid pre a b rest : length a = 4%nat -> length b = 4%nat -> zlen (pre ++ a ++ b ++ rest) < two63 ->
  look_ahead 4 4 (mkR (pre ++ a ++ b ++ rest) (zlen pre) false) = Ok (Some b).
Proof.
  intros Ha Hb Hs. unfold look_ahead, rlen. cbn [rpos rbuf].
  assert (Za : zlen a = 4) by (unfold zlen; rewrite Ha; reflexivity).
  assert (Zb : zlen b = 4) by (unfold zlen; rewrite Hb; reflexivity).
  pose proof (zlen_nonneg pre). pose proof (zlen_nonneg rest).
  rewrite !zlen_app in *. rewrite Za, Zb in *.
  change (Z.of_N 4) with 4.
  rewrite (w64_id (zlen pre + 4)) by (unfold two63 in *; lia).
  rewrite (w64_id (zlen pre + 4 + 4)) by (unfold two63 in *; lia).
  replace (zlen pre + 4 + 4 >? zlen pre + (4 + (4 + zlen rest))) with false by lia.
  assert (E : pre ++ a ++ b ++ rest = (pre ++ a) ++ (b ++ rest) ++ []) by (rewrite app_nil_r, <- !app_assoc; reflexivity).
  pose proof (gslice_mid (pre ++ a) (b ++ rest) []) as G. rewrite <- E in G.
  rewrite !zlen_app in G. rewrite Za, Zb in G. change (zlen (@nil N)) with 0 in G.
  replace (zlen pre + 4 + (4 + zlen rest)) with (zlen pre + (4 + (4 + zlen rest))) in G by lia.
  rewrite G. cbn [rbind]. f_equal. f_equal.
  change (N.to_nat 4) with 4%nat. rewrite <- Hb. rewrite firstn_app, Nat.sub_diag, firstn_all. cbn [firstn]. rewrite app_nil_r. reflexivity.
Qed.

(* the same for a reader standing before x: the second word of x *)
Lemma look_ahead_window buf q x : window buf q x -> 8 <= zlen x -> zlen buf < two63 ->
  look_ahead 4 4 (mkR buf q false) = Ok (Some (firstn 4 (skipn 4 x))).
Proof.
  intros (pre & post & -> & ->) H8 Hs. unfold zlen in H8.
  set (a := firstn 4 x). set (b := firstn 4 (skipn 4 x)). set (r := skipn 4 (skipn 4 x)).
  assert (E : x = a ++ b ++ r) by (unfold a, b, r; rewrite !firstn_skipn; reflexivity).
  assert (La : length a = 4%nat) by (unfold a; rewrite firstn_length; lia).
  assert (Lb : length b = 4%nat) by (unfold b; rewrite firstn_length, skipn_length; lia).
  clearbody a b r. subst x. rewrite <- !app_assoc in *. apply look_ahead_mid; assumption.
Qed.

Section META.
Variable ld : leafdec.
Hypothesis LD : leaf_ok ld.
Variables (nm : list N) (kids : list ctree).
Hypothesis HW : Forall (cwf ld) kids.

(* ------------------------------------------------------------ ISO form *)
Section ISO.
Variable vf : N.
Hypothesis Hvf : (vf < 4294967296)%N.
Let p : list N := be4 vf ++ cencs kids.
Hypothesis Hfit : (lenN p < 4294967288)%N.
(* the four bytes at offset 4 of the payload (the size field of the first child) are not "hdlr" *)
Hypothesis Hnq : eqb_name (firstn 4 (cencs kids)) name_hdlr = false.
Let h : hdr := mkH nm (8 + lenN p) 8.
Let v : metav := mkMeta false (vf / 16777216) (N.land vf flags_mask) (map erase kids).

Lemma meta_iso_sr_window buf q cst fuel : window buf q p -> zlen buf < two63 -> zlen buf - q < Z.of_nat fuel ->
  fst (meta_sr ld fuel h 0 (sr_at buf q cst)) = Ok v.
Proof.
  intros W Hs Hfuel. destruct (window_range _ _ _ W).
  assert (HLp : lenN p = (4 + lenN (cencs kids))%N) by (unfold p; rewrite lenN_app; reflexivity).
  unfold meta_sr. cbn [sr_at sr scost]. unfold h. rewrite payload_len_eq by lia.
  assert (LA : (if 8 <=? Z.of_N (lenN p) then look_ahead 4 4 (mkR buf q false) else Ok (Some [0; 0; 0; 0]%N))
               = Ok (Some (if 8 <=? Z.of_N (lenN p) then firstn 4 (cencs kids) else [0; 0; 0; 0]%N))).
  { destruct (8 <=? Z.of_N (lenN p)) eqn:E8; [|reflexivity]. apply (look_ahead_window buf q p W); [rewrite zlen_lenN; lia|exact Hs]. }
  rewrite LA. replace (eqb_name _ name_hdlr) with false by (destruct (8 <=? Z.of_N (lenN p)); [rewrite Hnq|]; reflexivity).
  apply window_app in W as [W1 Wk]. change (zlen (be4 vf)) with 4 in Wk.
  rewrite (read_fixed_window 4 _ _ _ W1 eq_refl), be_be4 by exact Hvf. cbn [rpos hsize].
  change (addu64 0 12) with 12%N. rewrite addu64_small by lia. replace (0 + (8 + lenN p))%N with (12 + lenN (cencs kids))%N by lia.
  destruct (children_sr_canon ld LD kids fuel 12 12 (q + 4) buf (q + 4) cst HW Wk Hs) as [c' E']; try lia.
  unfold sr_at in E'. rewrite E'. reflexivity.
Qed.

(* DecodeMeta reads the body and runs the same decoder on a private reader *)
Theorem meta_iso_pair_window buf q cst cst2 fuel : window buf q p -> zlen buf < two63 -> zlen buf - q < Z.of_nat fuel ->
  fst (meta_sr ld fuel h 0 (sr_at buf q cst)) = Ok v /\ fst (meta_r ld fuel h 0 (ir_at buf q cst2)) = Ok v /\
  meta_size v = (8 + lenN p)%N.
Proof.
  intros W Hs Hf. destruct (window_range _ _ _ W). pose proof (zlen_nonneg p).
  split; [apply meta_iso_sr_window; assumption|]. split.
  - unfold meta_r. destruct (read_box_body_window nm 8 _ _ _ cst2 W ltac:(lia)) as [c2 HB]. fold h in HB. rewrite HB. cbn [fst].
    apply (meta_iso_sr_window p 0 _ fuel (window_all p)); lia.
  - unfold meta_size, v, p in *. cbn [mt_kids mt_qt]. rewrite lenN_app in *. change (lenN (be4 vf)) with 4%N in *.
    rewrite (sum_sizes_erase ld) by (exact HW || lia). lia.
Qed.
End ISO.

(* ------------------------------------------------------------ QuickTime form: the payload IS the children, the first one named hdlr *)
Section QT.
Hypothesis Hfit : (lenN (cencs kids) < 4294967288)%N.
Hypothesis Hq : eqb_name (firstn 4 (skipn 4 (cencs kids))) name_hdlr = true.
Let h : hdr := mkH nm (8 + lenN (cencs kids)) 8.
Let v : metav := mkMeta true 0 0 (map erase kids).

Lemma qt_len8 : (8 <= lenN (cencs kids))%N.
Proof.
  destruct kids as [|k r]; [cbn in Hq; discriminate|]. apply Forall_cons_iff in HW as [Hk _].
  cbn [cencs]. rewrite lenN_app. pose proof (cenc_len_ge8 ld k Hk). lia.
Qed.

Lemma meta_qt_sr_window buf q cst fuel : window buf q (cencs kids) -> zlen buf < two63 -> zlen buf - q + 1 < Z.of_nat fuel ->
  fst (meta_sr ld fuel h 0 (sr_at buf q cst)) = Ok v.
Proof.
  intros W Hs Hfuel. destruct (window_range _ _ _ W). pose proof qt_len8 as H8.
  unfold meta_sr. cbn [sr_at sr scost]. unfold h. rewrite payload_len_eq by lia. replace (8 <=? Z.of_N (lenN (cencs kids))) with true by lia.
  rewrite (look_ahead_window buf q _ W), Hq by (exact Hs || rewrite zlen_lenN; lia). cbn [rpos hsize].
  change (addu64 0 8) with 8%N. rewrite addu64_small by lia. rewrite N.add_0_l.
  destruct (children_sr_canon ld LD kids fuel 8 8 q buf q cst HW W Hs) as [c' E']; try lia.
  rewrite E'. reflexivity.
Qed.

Theorem meta_qt_pair_window buf q cst cst2 fuel : window buf q (cencs kids) -> zlen buf < two63 -> zlen buf - q + 1 < Z.of_nat fuel ->
  fst (meta_sr ld fuel h 0 (sr_at buf q cst)) = Ok v /\ fst (meta_r ld fuel h 0 (ir_at buf q cst2)) = Ok v /\
  meta_size v = (8 + lenN (cencs kids))%N.
Proof.
  intros W Hs Hf. destruct (window_range _ _ _ W). pose proof (zlen_nonneg (cencs kids)).
  split; [apply meta_qt_sr_window; assumption|]. split.
  - unfold meta_r. destruct (read_box_body_window nm 8 _ _ _ cst2 W ltac:(lia)) as [c2 HB]. fold h in HB. rewrite HB. cbn [fst].
    apply (meta_qt_sr_window _ 0 _ fuel (window_all _)); lia.
  - unfold meta_size, v. cbn [mt_kids mt_qt]. rewrite (sum_sizes_erase ld) by (exact HW || lia). lia.
Qed.
End QT.
End META.

