(* C03DelegateExtProofs.v — the delegation theorem for the extended reader programs (xprog): zero-terminated strings,
   fixed-length strings with computed counts, positions relative to the decoder's entry position. *)
From V.lib Require Import Base.
From V.c04 Require Import C04Model C04ReaderProofs C04ContainerProofs.
From V.c03 Require Import C03Model C03Spec C03CanonProofs C03LeafModel C03DelegateProofs.
Open Scope Z_scope.

Lemma gslice_frame pre b post lo hi : 0 <= lo -> lo <= hi -> hi <= zlen b ->
  gslice (pre ++ b ++ post) (zlen pre + lo) (zlen pre + hi) = gslice b lo hi.
Proof.
  intros H1 H2 H3. pose proof (window_sub _ _ _ lo (hi - lo) (window_mid pre b post)) as [W L]; try lia.
  pose proof (window_sub _ _ _ lo (hi - lo) (window_all b)) as [W0 _]; try lia.
  apply window_gslice in W. apply window_gslice in W0. rewrite L in *.
  replace (zlen pre + lo + (hi - lo)) with (zlen pre + hi) in W by lia. replace (0 + lo + (hi - lo)) with hi in W0 by lia.
  rewrite W. symmetry. exact W0.
Qed.

Lemma gindex_frame pre b post i : 0 <= i < zlen b -> gindex (pre ++ b ++ post) (zlen pre + i) = gindex b i.
Proof.
  intros Hi. unfold gindex. rewrite !zlen_app. pose proof (zlen_nonneg pre). pose proof (zlen_nonneg post).
  replace ((0 <=? zlen pre + i) && (zlen pre + i <? zlen pre + (zlen b + zlen post)))%bool with true by lia.
  replace ((0 <=? i) && (i <? zlen b))%bool with true by lia. f_equal.
  replace (Z.to_nat (zlen pre + i)) with (length pre + Z.to_nat i)%nat by (unfold zlen; lia).
  rewrite app_nth2_plus. apply app_nth1. unfold zlen in Hi. lia.
Qed.

(* a fixed-length string read that leaves no error was inside the buffer, whatever the count *)
Lemma read_str_noerr_x n b i v s1 : 0 <= i <= zlen b -> zlen b < two62 -> is_int n = true ->
  read_fixed_string n (mkR b i false) = Ok (v, s1) -> rerr s1 = false -> 0 <= n /\ i + n <= zlen b.
Proof.
  intros Hi H62 Hn E He. unfold is_int in Hn. unfold read_fixed_string, rlen in E. cbn [rerr rpos rbuf] in E.
  destruct (i >? w64 (zlen b - n)) eqn:Eb. { inversion E; subst. discriminate He. }
  unfold gslice in E.
  destruct ((0 <=? i) && (i <=? w64 (i + n)) && (w64 (i + n) <=? zlen b))%bool eqn:Eg; [|cbn [rbind] in E; discriminate].
  unfold w64, two62, two63, two64 in *.
  assert (Hcases : - 9223372036854775808 <= i + n < 9223372036854775808 \/ 9223372036854775808 <= i + n) by lia.
  destruct Hcases as [Hc|Hc].
  - rewrite (Z.mod_small (i + n + 9223372036854775808)) in Eg by lia. lia.
  - exfalso.
    assert (Hm : (i + n + 9223372036854775808) mod 18446744073709551616 = i + n + 9223372036854775808 - 18446744073709551616).
    { symmetry. apply Z.mod_unique with (q := 1); lia. }
    rewrite Hm in Eg. lia.
Qed.

(* ---------------------------------------------------------------- zero-terminated strings *)
Lemma zloop_frame pre post b start : forall fuel fuel' pos maxPos maxPos' str p,
  0 <= start <= pos -> maxPos <= zlen b -> (fuel <= fuel')%nat -> zlen pre + maxPos <= maxPos' ->
  zloop fuel b start pos maxPos = Ok (Some str, p) ->
  pos < p <= maxPos /\
  zloop fuel' (pre ++ b ++ post) (zlen pre + start) (zlen pre + pos) maxPos' = Ok (Some str, zlen pre + p).
Proof.
  induction fuel as [|f IH]; intros fuel' pos maxPos maxPos' str p Hs Hm Hf Hm' E; [discriminate|].
  destruct fuel' as [|f']; [lia|]. cbn [zloop] in E |- *.
  destruct (pos >=? maxPos) eqn:E1; [inversion E|].
  replace (zlen pre + pos >=? maxPos') with false by lia.
  rewrite gindex_frame by lia.
  destruct (gindex b pos) as [c| | |]; cbn [rbind] in E |- *; try discriminate.
  destruct (c =? 0)%N.
  - rewrite gslice_frame by lia.
    destruct (gslice b start pos) as [l| | |]; cbn [rbind] in E |- *; try discriminate.
    inversion E; subst. split; [lia|]. f_equal. f_equal. lia.
  - destruct (IH f' (pos + 1) maxPos maxPos' str p ltac:(lia) Hm ltac:(lia) Hm' E) as [H1 H2].
    split; [lia|]. replace (zlen pre + pos + 1) with (zlen pre + (pos + 1)) by lia. exact H2.
Qed.

Lemma read_zstr_frames m b i v s1 : 0 <= i <= zlen b -> zlen b < two62 -> is_int m = true -> m < two62 ->
  read_zstring m (mkR b i false) = Ok (v, s1) -> rerr s1 = false ->
  exists j, s1 = mkR b j false /\ i <= j <= zlen b /\
    forall buf q, window buf q b -> zlen buf < two62 -> read_zstring m (mkR buf (q + i) false) = Ok (v, mkR buf (q + j) false).
Proof.
  intros Hi0 H62 Hi Hm E He. unfold is_int in Hi. unfold read_zstring, rlen in E. cbn [rerr rpos rbuf] in E.
  set (maxPos := if w64 (i + m) >? zlen b then zlen b else w64 (i + m)) in *.
  destruct (zloop (S (length b)) b i i maxPos) as [[[str|] p]| | |] eqn:Ez; cbn [rbind] in E; try discriminate.
  2:{ inversion E; subst. discriminate He. }
  inversion E; subst v s1. clear E.
  assert (Hmax : maxPos <= zlen b) by (subst maxPos; destruct (w64 (i + m) >? zlen b) eqn:X; lia).
  assert (Hw : w64 (i + m) = i + m) by (apply w64_id; unfold two62, two63 in *; lia).
  destruct (zloop_frame [] [] b i (S (length b)) (S (length b)) i maxPos maxPos str p ltac:(lia) Hmax ltac:(lia) ltac:(cbn; lia) Ez) as [Hp _].
  exists p. split; [reflexivity|]. split; [lia|]. intros buf q (pre & post & -> & ->) Hs.
  unfold read_zstring, rlen. cbn [rerr rpos rbuf]. rewrite !zlen_app in *. pose proof (zlen_nonneg pre). pose proof (zlen_nonneg post).
  rewrite (w64_id (zlen pre + i + m)) by (unfold two62, two63 in *; lia).
  set (maxPos' := if zlen pre + i + m >? zlen pre + (zlen b + zlen post) then zlen pre + (zlen b + zlen post) else zlen pre + i + m).
  assert (Hmp : zlen pre + maxPos <= maxPos').
  { subst maxPos maxPos'. rewrite Hw. destruct (i + m >? zlen b) eqn:X;
      destruct (zlen pre + i + m >? zlen pre + (zlen b + zlen post)) eqn:Y; lia. }
  destruct (zloop_frame pre post b i (S (length b)) (S (length (pre ++ b ++ post))) i maxPos maxPos' str p
              ltac:(lia) Hmax ltac:(rewrite !app_length; lia) Hmp Ez) as [_ Hf].
  rewrite Hf. reflexivity.
Qed.

Lemma pzloop_frame pre post b start : forall fuel fuel' pos maxPos str ok p,
  0 <= start <= pos -> (fuel <= fuel')%nat ->
  pzloop fuel b start pos maxPos = Ok (PZ str ok p false) ->
  pos <= p <= zlen b /\
  pzloop fuel' (pre ++ b ++ post) (zlen pre + start) (zlen pre + pos) (zlen pre + maxPos) = Ok (PZ str ok (zlen pre + p) false).
Proof.
  induction fuel as [|f IH]; intros fuel' pos maxPos str ok p Hs Hf E; [discriminate|].
  destruct fuel' as [|f']; [lia|]. cbn [pzloop] in E |- *.
  replace (zlen pre + pos =? zlen pre + maxPos) with (pos =? maxPos) by lia.
  replace (zlen pre + pos >? zlen pre + maxPos) with (pos >? maxPos) by lia.
  destruct (pos =? maxPos) eqn:E1.
  { unfold gslice in E.
    destruct ((0 <=? start) && (start <=? pos) && (pos <=? zlen b))%bool eqn:Eg; cbn [rbind] in E; [|discriminate].
    inversion E; subst. rewrite gslice_frame by lia. unfold gslice. rewrite Eg. cbn [rbind]. split; [lia|reflexivity]. }
  destruct (pos >? maxPos) eqn:E2; [inversion E|].
  unfold gindex in E at 1.
  destruct ((0 <=? pos) && (pos <? zlen b))%bool eqn:Ei; cbn [rbind] in E; [|discriminate].
  rewrite gindex_frame by lia. unfold gindex at 1. rewrite Ei. cbn [rbind].
  destruct (nth (Z.to_nat pos) b 0%N =? 0)%N.
  - unfold gslice in E.
    destruct ((0 <=? start) && (start <=? pos) && (pos <=? zlen b))%bool eqn:Eg; cbn [rbind] in E; [|discriminate].
    inversion E; subst. rewrite gslice_frame by lia. unfold gslice. rewrite Eg. cbn [rbind]. split; [lia|].
    f_equal. f_equal. lia.
  - destruct (IH f' (pos + 1) maxPos str ok p ltac:(lia) ltac:(lia) E) as [H1 H2]. split; [lia|].
    replace (zlen pre + pos + 1) with (zlen pre + (pos + 1)) by lia. exact H2.
Qed.

Lemma read_pzstr_frames m b i v s1 : 0 <= i <= zlen b -> zlen b < two62 -> is_int m = true -> m < two62 ->
  read_pzstring m (mkR b i false) = Ok (v, s1) -> rerr s1 = false ->
  exists j, s1 = mkR b j false /\ i <= j <= zlen b /\
    forall buf q, window buf q b -> zlen buf < two62 -> read_pzstring m (mkR buf (q + i) false) = Ok (v, mkR buf (q + j) false).
Proof.
  intros Hi0 H62 Hi Hm E He. unfold is_int in Hi. unfold read_pzstring in E. cbn [rerr rpos rbuf] in E.
  rewrite (w64_id (i + m)) in E by (unfold two62, two63 in *; lia).
  destruct (pzloop (S (S (length b))) b i i (i + m)) as [[str ok p se]| | |] eqn:Ez; cbn [rbind] in E; try discriminate.
  inversion E; subst v s1. clear E. cbn [rerr orb] in He. subst se.
  destruct (pzloop_frame [] [] b i (S (S (length b))) (S (S (length b))) i (i + m) str ok p ltac:(lia) ltac:(lia) Ez) as [Hp _].
  exists p. split; [reflexivity|]. split; [lia|]. intros buf q (pre & post & -> & ->) Hs.
  unfold read_pzstring. cbn [rerr rpos rbuf]. rewrite !zlen_app in *. pose proof (zlen_nonneg pre). pose proof (zlen_nonneg post).
  rewrite (w64_id (zlen pre + i + m)) by (unfold two62, two63 in *; lia).
  destruct (pzloop_frame pre post b i (S (S (length b))) (S (S (length (pre ++ b ++ post)))) i (i + m) str ok p
              ltac:(lia) ltac:(rewrite !app_length; lia) Ez) as [_ Hf].
  replace (zlen pre + i + m) with (zlen pre + (i + m)) by lia. rewrite Hf. reflexivity.
Qed.

(* ---------------------------------------------------------------- one operation *)
Lemma xstep_frame o b i v s1 : local_xop o = true -> 0 <= i <= zlen b -> zlen b < two62 ->
  rstep (mkR b i false) o = Ok (v, s1) -> rerr s1 = false -> frames_at two62 o b i v s1.
Proof.
  intros Hl Hi H62 E He.
  (* the operations of C03DelegateProofs, with their larger bound *)
  assert (R1 : forall o', o' = o -> local_op o' = true -> frames_at two62 o b i v s1).
  { intros o' -> Hl1. destruct (rstep_frame o b i v s1 Hl1 Hi H62 E He) as (j & Hs1 & Hj & F). exists j. split; [exact Hs1|].
    split; [exact Hj|]. intros buf q W Hs. apply F; [exact W|unfold two62, two63 in *; lia]. }
  destruct o as [| | | | | | | |n|m|m|n| | |n|p| | |off dlen|]; cbn [local_xop] in Hl; try discriminate;
    try (apply (R1 _ eq_refl); reflexivity).
  - (* RFixedStr, any int count *)
    cbn [rstep] in E. destruct (read_fixed_string n (mkR b i false)) as [[x s2]| | |] eqn:Er; cbn [rbind fst snd] in E; try discriminate.
    inversion E; subst v s1. destruct (read_str_noerr_x n b i x s2 Hi H62 Hl Er He) as [Hn0 Hn1].
    apply (R1 _ eq_refl). cbn [local_op]. unfold two62 in *. lia.
  - (* RZStr *)
    apply andb_prop in Hl. destruct Hl as [Hint Hm]. cbn [rstep] in E.
    destruct (read_zstring m (mkR b i false)) as [[x s2]| | |] eqn:Er; cbn [rbind fst snd] in E; try discriminate.
    inversion E; subst v s1. destruct (read_zstr_frames m b i x s2 Hi H62 Hint ltac:(unfold two62; lia) Er He) as (j & Hs1 & Hj & F).
    exists j. split; [exact Hs1|]. split; [exact Hj|]. intros buf q W Hs. cbn [rstep]. rewrite (F buf q W Hs). reflexivity.
  - (* RPZStr *)
    apply andb_prop in Hl. destruct Hl as [Hint Hm]. cbn [rstep] in E.
    destruct (read_pzstring m (mkR b i false)) as [[[x okz] s2]| | |] eqn:Er; cbn [rbind fst snd] in E; try discriminate.
    inversion E; subst v s1. destruct (read_pzstr_frames m b i (x, okz) s2 Hi H62 Hint ltac:(unfold two62; lia) Er He) as (j & Hs1 & Hj & F).
    exists j. split; [exact Hs1|]. split; [exact Hj|]. intros buf q W Hs. cbn [rstep]. rewrite (F buf q W Hs). reflexivity.
  - (* RSkip *)
    apply (R1 _ eq_refl). exact Hl.
Qed.

Lemma xstep_err_sticky o s v s1 : local_xop o = true -> rstep s o = Ok (v, s1) -> rerr s = true -> rerr s1 = true.
Proof.
  intros Hl E He.
  destruct o as [| | | | | | | |n|m|m|n| | |n|p| | |off dlen|]; cbn [local_xop] in Hl; try discriminate;
    try (match type of E with rstep s ?o = _ => exact (rstep_err_sticky o s v s1 eq_refl E He) end).
  - cbn [rstep] in E. unfold read_fixed_string in E. rewrite He in E. cbn [rbind fst snd] in E. inversion E; subst. exact He.
  - cbn [rstep] in E. unfold read_zstring in E. rewrite He in E. cbn [rbind fst snd] in E. inversion E; subst. exact He.
  - cbn [rstep] in E. unfold read_pzstring in E.
    destruct (pzloop _ _ _ _ _) as [[str ok p se]| | |]; cbn [rbind fst snd] in E; try discriminate.
    inversion E; subst. cbn [rerr]. rewrite He. reflexivity.
  - exact (rstep_err_sticky (RSkip n) s v s1 Hl E He).
Qed.

(* ---------------------------------------------------------------- the delegation pattern, extended programs *)
Theorem delegate_sound_x : forall A (p : xprog A) body a s', local_xprog p -> zlen body < two62 ->
  run_xprog 0 p (rnew body) = Ok (a, s') -> rerr s' = false ->
  forall buf q, window buf q body -> zlen buf < two62 ->
    run_xprog q p (mkR buf q false) = Ok (a, mkR buf (q + rpos s') false).
Proof.
  intros A p body a s' Hl Hb E He buf q W Hs.
  destruct (framing_sound local_xop two62 xstep_frame xstep_err_sticky A p Hl 0 body 0 a s'
              ltac:(pose proof (zlen_nonneg body); lia) Hb E He) as (j & -> & F).
  specialize (F buf q W Hs). rewrite !Z.add_0_r in F. exact F.
Qed.

(* the pair as the delegating decoders use it: same guard on the header on both paths, the SR decoder's own treatment of the
   accumulated error (strict or not) on both paths (the reader-path decoder returns whatever the SR decoder returned) *)
Theorem xprog_pair_agree : forall A (p : xprog A) (guard strict : bool) body a s', local_xprog p -> zlen body < two62 ->
  run_xprog 0 p (rnew body) = Ok (a, s') -> rerr s' = false ->
  forall buf q, window buf q body -> zlen buf < two62 ->
    (guard = true -> xprog_body_r guard strict p body = Err /\ xprog_sr guard strict p (mkR buf q false) = Err) /\
    (guard = false -> xprog_body_r guard strict p body = Ok a /\
                      xprog_sr guard strict p (mkR buf q false) = Ok (a, mkR buf (q + rpos s') false)).
Proof.
  intros A p guard strict body a s' Hl Hb E He buf q W Hs. split; intros Hg; subst guard.
  - split; reflexivity.
  - split.
    + unfold xprog_body_r. rewrite E. cbn [rbind]. rewrite He, andb_false_r. reflexivity.
    + unfold xprog_sr. cbn [rpos]. rewrite (delegate_sound_x A p body a s' Hl Hb E He buf q W Hs). cbn [rbind rerr].
      rewrite andb_false_r. reflexivity.
Qed.

(* every program of C03DelegateProofs is an extended program, and local ones stay local *)
Lemma local_op_xop o : local_op o = true -> local_xop o = true.
Proof.
  destruct o; cbn [local_op local_xop]; intros H; try exact H; try discriminate.
  apply andb_prop in H. destruct H as [H1 H2]. unfold is_int, two63. apply andb_true_intro. split; lia.
Qed.

Lemma xprog_of_sprog_local {A} (p : sprog A) : local_prog p -> local_xprog (xprog_of_sprog p).
Proof.
  induction p as [a| |o k IH]; cbn [local_prog local_xprog xprog_of_sprog]; intros H; try exact I.
  destruct H as [Ho Hk]. split; [apply local_op_xop; exact Ho|]. intros v. apply IH. apply Hk.
Qed.
