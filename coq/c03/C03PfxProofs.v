(* C03PfxProofs.v — the decoder pairs of C03PfxModel.v (the encoders: C03LeafEncProofs.hdr_kids_enc_agree).
   Decoders on canonical payloads (fixed bytes, then canonical children decoded by ANY leaf pair satisfying the leaf contract):
   the fixed-prefix entries with the `for pos < endPos` child loop (wvtt; the SR decoder of the audio sample entries);
   the counted layout (dref, trep) is in C03StsdProofs.v. *)
From V.lib Require Import Base.
From V.c04 Require Import C04Model C04ReaderProofs C04ContainerProofs.
From V.c03 Require Import C03Model C03Spec C03Proofs C03CanonProofs C03LeafModel C03LeafProofs C03LeafBoxProofs C03LeafEncProofs C03StsdProofs C03VseProofs C03PfxModel.
Open Scope Z_scope.

(* ---------------------------------------------------------------- fixed bytes, then the `for pos < endPos` child loop *)
Section FPE.
Variable ld : leafdec.
Hypothesis LD : leaf_ok ld.
Context {A : Type}.
Variable e : fpe A.
Variables (nm fx : list N) (kids : list ctree) (a : A).
Hypothesis HW : Forall (cwf ld) kids.
Let p : list N := fx ++ cencs kids.
Hypothesis Hfit : (lenN p < 4294967288)%N.
Let h : hdr := mkH nm (8 + lenN p) 8.
(* the fixed part: standing before fx in any buffer it delivers a and stops behind fx *)
Hypothesis Hpf : forall buf q, window buf q fx -> zlen buf < two63 -> fp_pf e (mkR buf q false) = Ok (a, mkR buf (q + zlen fx) false).
Hypothesis Hk : fp_kpos e = (8 + lenN fx)%N.

Lemma fpe_end : (if fp_end_payload e then addu64 0 (u64z (Z.of_N (hlen h) + payload_len h)) else addu64 0 (hsize h)) = (8 + lenN fx + lenN (cencs kids))%N.
Proof.
  assert (HL : lenN p = (lenN fx + lenN (cencs kids))%N) by (unfold p; apply lenN_app).
  unfold h. cbn [hlen hsize]. destruct (fp_end_payload e).
  - rewrite payload_len_eq by lia. unfold u64z, two64. rewrite Z.mod_small by lia.
    replace (Z.to_N (Z.of_N 8 + Z.of_N (lenN p))) with (8 + lenN p)%N by lia. rewrite addu64_small; lia.
  - rewrite addu64_small; lia.
Qed.

Lemma fpe_sr_window buf q cst fuel : window buf q p -> zlen buf < two63 -> zlen buf - q + 1 < Z.of_nat fuel ->
  fst (fpe_sr e ld fuel h 0 (sr_at buf q cst)) = Ok (a, map erase kids).
Proof.
  intros W Hs Hf. apply window_app in W as [Wf Wk]. pose proof (zlen_nonneg fx).
  assert (HL : lenN p = (lenN fx + lenN (cencs kids))%N) by (unfold p; apply lenN_app).
  unfold fpe_sr. cbn [sr_at sr scost]. rewrite (Hpf buf q Wf Hs), fpe_end, Hk, addu64_small, N.add_0_l by lia.
  destruct (vse_kids_canon ld LD kids HW ltac:(lia) fuel (8 + lenN fx)%N [] buf (q + zlen fx) cst Wk Hs) as [c' E]; [lia..|].
  unfold sr_at in E. rewrite E. cbn [sr rerr]. rewrite andb_false_r. reflexivity.
Qed.

Lemma fpe_deleg_r_window buf q cst fuel : window buf q p -> zlen buf < two63 -> zlen p + 1 < Z.of_nat fuel ->
  fst (fpe_deleg_r e ld fuel h 0 (ir_at buf q cst)) = Ok (a, map erase kids).
Proof.
  intros W Hs Hf. unfold fpe_deleg_r. destruct (read_box_body_window nm 8 _ _ _ cst W ltac:(lia)) as [c2 HB]. fold h in HB. rewrite HB.
  destruct (window_range _ _ _ W). cbn [fst]. apply (fpe_sr_window p 0 _ fuel (window_all p)); lia.
Qed.

End FPE.
