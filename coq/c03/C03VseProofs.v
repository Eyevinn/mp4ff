(* C03VseProofs.v — DecodeVisualSampleEntry (readBoxBody, then the SR decoder on a private reader over the body) vs
   DecodeVisualSampleEntrySR (on the caller's reader) on canonical sample entries: 78 fixed bytes with a compressor-name
   length <= 31, then canonical children.  Both accept with the same value; Size() = 8 + len payload. *)
From V.lib Require Import Base.
From V.c04 Require Import C04Model C04ReaderProofs C04ContainerProofs.
From V.c03 Require Import C03Model C03Spec C03CanonProofs C03LeafModel C03LeafProofs C03LeafBoxProofs C03StsdProofs.
Open Scope Z_scope.

(* ---------------------------------------------------------------- the 78 fixed bytes *)
(* the fields the decoder takes from 78 bytes fx (compressor name of cnl bytes) *)
Definition vse_of (fx : list N) (cnl : N) : vse :=
  mkVse (be (sub fx 6 2) 0) (be (sub fx 24 2) 0) (be (sub fx 26 2) 0) (be (sub fx 28 4) 0) (be (sub fx 32 4) 0) (be (sub fx 40 2) 0)
        (sub fx 43 (Z.of_N cnl)) [].

(* whatever buffer they stand in, and it stops behind them *)
Lemma vse_fixed_window fx cnl buf q : zlen fx = 78 -> sub fx 42 1 = [cnl] -> (cnl <= 31)%N -> window buf q fx -> zlen buf < two63 ->
  vse_fixed (mkR buf q false) = Ok (vse_of fx cnl, mkR buf (q + 78) false).
Proof.
  intros Hlen Hc Hc31 W Hs. unfold vse_fixed. replace q with (q + 0) at 1 by lia.
  rewrite (skip_bytes_at 6 _ _ _ _ W), (read_fixed_at 2 _ _ _ _ W) by (assumption || lia). cbn [rbind].
  rewrite (skip_bytes_at 4 _ _ _ _ W), (skip_bytes_at 12 _ _ _ _ W), (read_fixed_at 2 _ _ _ _ W) by (assumption || lia). cbn [rbind].
  rewrite (read_fixed_at 2 _ _ _ _ W) by lia. cbn [rbind]. rewrite (read_fixed_at 4 _ _ _ _ W) by lia. cbn [rbind].
  rewrite (read_fixed_at 4 _ _ _ _ W) by lia. cbn [rbind]. rewrite (read_fixed_at 4 _ _ _ _ W) by lia. cbn [rbind].
  rewrite (read_fixed_at 2 _ _ _ _ W) by lia. cbn [rbind]. rewrite (read_fixed_at 1 _ _ _ _ W) by lia. cbn [rbind].
  change (0 + 6 + 2 + 4 + 12 + 2 + 2 + 4 + 4 + 4 + 2) with 42. rewrite Hc. replace (be [cnl] 0) with cnl by (cbn [be]; lia).
  replace (31 <? cnl)%N with false by lia.
  rewrite (read_fixed_string_at (Z.of_N cnl) _ _ _ _ W) by (assumption || lia). cbn [rbind].
  rewrite (skip_bytes_at (Z.of_N (31 - cnl)) _ _ _ _ W), (skip_bytes_at 2 _ _ _ _ W), (read_fixed_at 2 _ _ _ _ W) by (assumption || lia).
  cbn [rbind]. replace (42 + 1 + Z.of_N cnl + Z.of_N (31 - cnl) + 2 + 2) with 78 by lia. reflexivity.
Qed.

(* ---------------------------------------------------------------- the child loop on canonical children *)
Section VSE.
Variable ld : leafdec.
Hypothesis LD : leaf_ok ld.

Lemma vse_kids_canon : forall kids, Forall (cwf ld) kids -> (lenN (cencs kids) < 4294967296)%N ->
  forall fuel pos acc buf q cst,
    window buf q (cencs kids) -> zlen buf < two63 -> (pos + lenN (cencs kids) < 18446744073709551616)%N ->
    zlen buf - q + 1 < Z.of_nat fuel ->
    exists cst', vse_kids ld fuel pos (pos + lenN (cencs kids)) acc (sr_at buf q cst)
                 = (Ok (rev acc ++ map erase kids), sr_at buf (q + zlen (cencs kids)) cst').
Proof.
  induction kids as [|k rest IH]; intros HW Hl fuel pos acc buf q cst W Hs Hp Hf; destruct (window_range _ _ _ W);
    (destruct fuel as [|f]; [unfold zlen in *; lia|]); cbn [vse_kids cencs map].
  - rewrite N.add_0_r, N.ltb_irrefl. exists cst. change (zlen (@nil N)) with 0. rewrite Z.add_0_r, app_nil_r. reflexivity.
  - apply Forall_cons_iff in HW as [HWk HWr]. pose proof (cenc_len_ge8 ld k HWk) as Hk8.
    apply fits_cons in Hl as Hl'. destruct Hl' as [Hfk Hlr].
    cbn [cencs] in *. rewrite lenN_app in *. apply window_app in W as [Wk Wr].
    replace (pos <? pos + (lenN (cenc k) + lenN (cencs rest)))%N with true by lia.
    destruct (dec_box_sr_canon ld LD k f pos buf q cst HWk Hfk Wk Hs ltac:(lia) ltac:(lia)) as [c1 E].
    rewrite E, (tsize_erase ld k HWk Hfk), addu64_small by lia.
    destruct (IH HWr Hlr f (pos + lenN (cenc k))%N (erase k :: acc) buf (q + zlen (cenc k)) c1 Wr Hs) as [c' E'];
      [lia|rewrite (zlen_lenN (cenc k)); lia|].
    rewrite N.add_assoc, E'. exists c'. cbn [rev]. rewrite <- app_assoc, zlen_app, Z.add_assoc. reflexivity.
Qed.

Variables (nm a b : list N) (cnl : N) (kids : list ctree).
Hypothesis Ha : length a = 42%nat.
Hypothesis Hb : length b = 35%nat.
Hypothesis Hc31 : (cnl <= 31)%N.
Hypothesis HW : Forall (cwf ld) kids.
Let fx : list N := a ++ [cnl] ++ b.
Let p : list N := fx ++ cencs kids.
Hypothesis Hfit : (lenN p < 4294967288)%N.
Let h : hdr := mkH nm (8 + lenN p) 8.

Lemma zlen_fx : zlen fx = 78.
Proof. unfold fx. rewrite !zlen_app. unfold zlen. rewrite Ha, Hb. reflexivity. Qed.

Lemma fx42 : sub fx 42 1 = [cnl].
Proof.
  unfold sub, fx. change (Z.to_nat 42) with 42%nat. rewrite <- Ha, skipn_app, skipn_all, Nat.sub_diag. reflexivity.
Qed.

Let v : vse :=
  let v0 := vse_of fx cnl in
  mkVse (vs_dri v0) (vs_width v0) (vs_height v0) (vs_hres v0) (vs_vres v0) (vs_frames v0) (vs_cname v0) (map erase kids).

(* DecodeVisualSampleEntrySR before the payload, wherever it stands *)
Lemma vse_sr_window buf q cst fuel : window buf q p -> zlen buf < two63 -> zlen buf - q + 1 < Z.of_nat fuel ->
  fst (vse_sr ld fuel h 0 (sr_at buf q cst)) = Ok v.
Proof.
  intros W Hs Hf. apply window_app in W as [Wf Wk]. rewrite zlen_fx in Wk.
  assert (HL : lenN p = (78 + lenN (cencs kids))%N) by (unfold p; rewrite lenN_app; pose proof zlen_fx as H; rewrite zlen_lenN in H; lia).
  unfold vse_sr. cbn [sr_at sr scost]. rewrite (vse_fixed_window fx cnl buf q zlen_fx fx42 Hc31 Wf Hs).
  replace (addu64 (addu64 0 (hlen h)) (u64z (payload_len h))) with (86 + lenN (cencs kids))%N.
  2:{ unfold h. cbn [hlen]. rewrite payload_len_eq by lia. unfold u64z, two64. rewrite Z.mod_small, N2Z.id by lia.
      rewrite (addu64_small 0), addu64_small; lia. }
  change (addu64 0 86) with 86%N.
  destruct (vse_kids_canon kids HW ltac:(lia) fuel 86%N [] buf (q + 78) cst Wk Hs) as [c' E]; [lia..|].
  unfold sr_at in E. rewrite E. reflexivity.
Qed.

(* the pair before the payload, wherever it stands; the reader path reads the body, then runs the same decoder on a private reader *)
Theorem vse_pair_window : forall buf q cst cst2 fuel,
  window buf q p -> zlen buf < two63 -> zlen buf - q + 1 < Z.of_nat fuel ->
  exists v, vs_kids v = map erase kids /\ vse_size v = (8 + lenN p)%N /\
    fst (vse_sr ld fuel h 0 (sr_at buf q cst)) = Ok v /\ fst (vse_r ld fuel h 0 (ir_at buf q cst2)) = Ok v.
Proof.
  intros buf q cst cst2 fuel W Hs Hf. destruct (window_range _ _ _ W). pose proof (zlen_nonneg p).
  exists v. split; [reflexivity|]. split.
  { unfold vse_size, v. cbn [vs_kids]. pose proof zlen_fx as Hx. unfold p in *. rewrite lenN_app, zlen_lenN in *.
    rewrite (sum_sizes_erase ld) by (exact HW || lia). lia. }
  split; [apply vse_sr_window; assumption|].
  unfold vse_r. destruct (read_box_body_window nm 8 _ _ _ cst2 W ltac:(lia)) as [c2 HB]. fold h in HB. rewrite HB. cbn [fst].
  apply (vse_sr_window p 0 _ fuel (window_all p)); lia.
Qed.
End VSE.
