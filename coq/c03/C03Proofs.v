(* C03Proofs.v — the separately written pairs agree. *)
From V.lib Require Import Base.
From V.c04 Require Import C04AsmModel.
From V.c03 Require Import C03Model.
Open Scope N_scope.

Section ebox_ind2.
  Variable P : ebox -> Prop.
  Hypothesis Hl : forall w sw, P (ELeaf w sw).
  Hypothesis Hc : forall nm size kids, Forall P kids -> P (ECont nm size kids).
  Fixpoint ebox_ind2 (b : ebox) : P b :=
    match b with
    | ELeaf w sw => Hl w sw
    | ECont nm size kids =>
        Hc nm size kids
           ((fix go (l : list ebox) : Forall P l :=
               match l with [] => Forall_nil _ | k :: r => Forall_cons _ (ebox_ind2 k) (go r) end) kids)
    end.
End ebox_ind2.

Lemma bytes_eqb_eq : forall a b,
  (fix eq (x y : list N) : bool :=
     match x, y with [], [] => true | p :: x', q :: y' => (p =? q) && eq x' y' | _, _ => false end) a b = true -> a = b.
Proof.
  induction a as [|p a IH]; destruct b as [|q b]; intros H; try discriminate; [reflexivity|].
  apply andb_prop in H. destruct H as [H1 H2]. apply N.eqb_eq in H1. subst. f_equal. apply IH. exact H2.
Qed.

(* the child loops written inside enc_w, enc_sw and agree are enc_list and agree_list *)
Lemma enc_w_cont nm size kids :
  enc_w (ECont nm size kids) = do h <- enc_header_w nm size; do rest <- enc_list enc_w kids; Ok (h ++ rest).
Proof. cbn [enc_w]. do 2 f_equal. induction kids as [|k r IH]; [reflexivity|]. cbn [enc_list]. rewrite <- IH. reflexivity. Qed.

Lemma enc_sw_cont nm size kids :
  enc_sw (ECont nm size kids) = do h <- enc_header_sw nm size; do rest <- enc_list enc_sw kids; Ok (h ++ rest).
Proof. cbn [enc_sw]. do 2 f_equal. induction kids as [|k r IH]; [reflexivity|]. cbn [enc_list]. rewrite <- IH. reflexivity. Qed.

Lemma agree_cont nm size kids : agree (ECont nm size kids) = agree_list kids.
Proof. cbn [agree]. unfold agree_list. induction kids as [|k r IH]; [reflexivity|]. cbn [forallb]. rewrite <- IH. reflexivity. Qed.

Lemma enc_list_agree_in : forall l, Forall (fun b => agree b = true -> enc_w b = enc_sw b) l -> agree_list l = true ->
  enc_list enc_w l = enc_list enc_sw l.
Proof.
  induction 1 as [|k r Hk Hr IH]; intros H; [reflexivity|]. cbn [agree_list forallb] in H.
  apply andb_prop in H. destruct H as [H1 H2]. cbn [enc_list]. rewrite (Hk H1), (IH H2). reflexivity.
Qed.

Lemma enc_agree : forall b, agree b = true -> enc_w b = enc_sw b.
Proof.
  induction b as [w sw|nm size kids IH] using ebox_ind2; intros H.
  - cbn in *. destruct w, sw; try discriminate; try reflexivity. f_equal. apply bytes_eqb_eq. exact H.
  - rewrite agree_cont in H. rewrite enc_w_cont, enc_sw_cont, (enc_list_agree_in kids IH H). reflexivity.
Qed.

Lemma enc_list_agree : forall l, agree_list l = true -> enc_list enc_w l = enc_list enc_sw l.
Proof. intros l. apply enc_list_agree_in, Forall_forall. intros b _. apply enc_agree. Qed.

Lemma frags_agree : forall l, forallb (fun fr => agree_list (ef_children fr)) l = true ->
  frags_enc frag_enc_w l = frags_enc frag_enc_sw l.
Proof.
  induction l as [|k r IH]; intros H; [reflexivity|]. cbn [forallb] in H.
  apply andb_prop in H. destruct H as [H1 H2]. cbn [frags_enc]. rewrite (IH H2).
  unfold frag_enc_w, frag_enc_sw. rewrite (enc_list_agree _ H1). reflexivity.
Qed.

Lemma segs_agree : forall l,
  forallb (fun sg => match es_styp sg with Some b => agree b | None => true end && agree_list (es_sidxs sg) &&
                     forallb (fun fr => agree_list (ef_children fr)) (es_frags sg)) l = true ->
  segs_enc seg_enc_w l = segs_enc seg_enc_sw l.
Proof.
  induction l as [|sg r IH]; intros H; [reflexivity|]. cbn [forallb] in H.
  apply andb_prop in H. destruct H as [H1 H2]. apply andb_prop in H1. destruct H1 as [H1 H3].
  apply andb_prop in H1. destruct H1 as [H0 H1].
  cbn [segs_enc]. rewrite (IH H2). unfold seg_enc_w, seg_enc_sw.
  rewrite (enc_list_agree _ H1), (frags_agree _ H3).
  destruct (es_styp sg) as [b|]; cbn [enc_opt]; [rewrite (enc_agree b H0)|]; reflexivity.
Qed.

Theorem encode_agree : forall f, agree_file f = true -> file_enc_w f = file_enc_sw true f.
Proof.
  intros f H. unfold agree_file in H.
  apply andb_prop in H. destruct H as [H Hc]. apply andb_prop in H. destruct H as [H Hm].
  apply andb_prop in H. destruct H as [H Hs]. apply andb_prop in H. destruct H as [Hi Hx].
  unfold file_enc_w, file_enc_sw. destruct (e_frag f && negb (e_boxtree f)).
  - rewrite (enc_list_agree _ Hx), (segs_agree _ Hs).
    destruct (e_init f) as [l|]; [rewrite (enc_list_agree _ Hi)|];
      (destruct (e_mfra f) as [b|]; cbn [enc_opt]; [rewrite (enc_agree b Hm)|]; reflexivity).
  - apply enc_list_agree. exact Hc.
Qed.

Theorem box_encode_agree : forall b, agree b = true -> enc_w b = enc_sw b.
Proof. exact enc_agree. Qed.

(* the pinned File.EncodeSW drops the mfra box in segment mode *)
Definition mfra_file : efile :=
  mkE true false None [] [] (Some (ELeaf (Ok [0;0;0;8;109;102;114;97]) (Ok [0;0;0;8;109;102;114;97]))) [].
Theorem encode_sw_mfra_refuted :
  agree_file mfra_file = true /\ file_enc_w mfra_file = Ok [0;0;0;8;109;102;114;97] /\
  file_enc_sw false mfra_file = Ok [] /\ file_enc_sw true mfra_file = file_enc_w mfra_file.
Proof. repeat split; vm_compute; reflexivity. Qed.

(* ---- the two file decode loops *)
(* the two loops came out as the same text *)
Lemma loops_agree : forall boxes o f last pos,
  decode_file_sr_loop o f last pos boxes = decode_file_r_loop o f last pos boxes.
Proof. reflexivity. Qed.

Lemma ssin_tfra o f pos f' : start_segment_if_needed true o f pos = Ok f' -> f_tfra f' = f_tfra f.
Proof.
  unfold start_segment_if_needed. destruct (seg_start_raw true o f pos); cbn [rbind]; try discriminate.
  match goal with |- context [if ?c then _ else _] => destruct c end; intros H; inversion H; reflexivity.
Qed.

Lemma add_child_tfra o f t size pos f' : add_child true o f t size pos = Ok f' -> f_tfra f' = f_tfra f.
Proof.
  unfold add_child. intros H.
  destruct t; cbn [rbind] in H.
  - inversion H; reflexivity.
  - destruct (moov_stts true m) as [[[|p]|]| | |]; cbn [rbind] in H; try discriminate; inversion H; reflexivity.
  - inversion H; reflexivity.
  - destruct (f_segs f); cbn [rbind] in H; inversion H; reflexivity.
  - destruct (start_segment_if_needed true o f pos) as [f1| | |] eqn:E; cbn [rbind] in H; try discriminate.
    apply ssin_tfra in E. destruct (f_segs f1) as [|sg r]; [discriminate|].
    destruct (sg_frags sg); cbn [rbind] in H; inversion H; cbn; exact E.
  - destruct (start_segment_if_needed true o (set_segs f (f_segs f) true) pos) as [f1| | |] eqn:E; cbn [rbind] in H; try discriminate.
    apply ssin_tfra in E. destruct (f_segs f1) as [|sg r]; [discriminate|].
    destruct (sg_frags sg) as [|fr frs]; [|destruct (fr_moof fr)]; cbn [rbind] in H; inversion H; cbn; exact E.
  - destruct (negb (f_frag f)).
    + destruct (f_mdat f) as [[|p]|]; cbn [rbind] in H; inversion H; reflexivity.
    + destruct (f_segs f) as [|sg r]; [discriminate|]. destruct (sg_frags sg); [discriminate|].
      cbn [rbind] in H. inversion H; reflexivity.
  - inversion H; reflexivity.
  - inversion H; reflexivity.
Qed.

Lemma loop_tfra : forall boxes o f last pos f',
  decode_file_r_loop o f last pos boxes = Ok f' -> f_tfra f' = f_tfra f.
Proof.
  induction boxes as [|[t size] rest IH]; intros o f last pos f' H.
  - inversion H; reflexivity.
  - cbn [decode_file_r_loop] in H.
    match type of H with rbind ?pre _ = _ => destruct pre; cbn [rbind] in H; try discriminate end.
    destruct (add_child true o f t size pos) as [f1| | |] eqn:E; cbn [rbind] in H; try discriminate.
    apply IH in H. rewrite H. eapply add_child_tfra. exact E.
Qed.

Lemma clear_tfra_id f : f_tfra f = None -> clear_tfra f = f.
Proof. destruct f; cbn. intros ->. reflexivity. Qed.

(* same options (no ISM flag, no lazy mode: DecodeFileSR supports neither): the same File, i.e. the same
   grouping into init / segments / fragments, the same StartPos everywhere *)
Theorem file_agree : forall o boxes, o_ism o = false -> o_lazy o = false ->
  decode_file_sr o boxes = decode_file_r o boxes.
Proof.
  intros o boxes Hi Hl. unfold decode_file_sr, decode_file_r. rewrite Hi, Hl. cbn [rbind].
  rewrite loops_agree. change (mkF false None None None [] None false [] [] false) with f0.
  destruct (decode_file_r_loop o f0 BNone 0 boxes) as [f| | |] eqn:E; cbn [rbind]; try reflexivity.
  apply loop_tfra in E. rewrite clear_tfra_id; [reflexivity|exact E].
Qed.
