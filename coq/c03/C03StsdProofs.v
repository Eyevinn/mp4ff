(* C03StsdProofs.v — the counted layout: a version/flags word, a second 32-bit word, then child boxes from startPos+16.
   stsd (the separately written pair DecodeStsd / DecodeStsdSR) and, with another final test, dref and trep
   (C03PfxModel.cnt_sr / cnt_r) on canonical payloads - the two words, canonical children decoded by any leaf decoder pair
   satisfying the C04 leaf contract: both decoders accept, with the same decoded value, and consume exactly the payload. *)
From V.lib Require Import Base.
From V.c04 Require Import C04Model C04ReaderProofs C04ContainerProofs.
From V.c03 Require Import C03Model C03Spec C03CanonProofs C03LeafModel C03PfxModel.
Open Scope Z_scope.

Lemma sum_sizes_erase ld : forall kids acc, Forall (cwf ld) kids -> (acc + lenN (cencs kids) < 4294967296)%N ->
  sum_sizes (map erase kids) acc = (acc + lenN (cencs kids))%N.
Proof.
  induction kids as [|k r IH]; intros acc HW Hl.
  - cbn [map sum_sizes cencs]. unfold lenN. cbn [length]. lia.
  - apply Forall_cons_iff in HW as [HWk HWr]. cbn [map sum_sizes cencs] in *. rewrite lenN_app in *.
    rewrite (tsize_erase ld k) by (assumption || unfold fits; lia).
    rewrite addu64_small, IH by (assumption || lia). lia.
Qed.

(* every box has at least its header *)
Lemma kids_le_bytes ld : forall kids, Forall (cwf ld) kids -> (lenN kids <= lenN (cencs kids))%N.
Proof.
  intros kids HW. induction HW as [|k r Hk Hr IH]; [unfold lenN; cbn; lia|].
  cbn [cencs]. rewrite lenN_app, lenN_cons. pose proof (cenc_len_ge8 ld k Hk). lia.
Qed.

Lemma lenN_words a b (x : list N) : lenN (be4 a ++ be4 b ++ x) = (8 + lenN x)%N.
Proof. rewrite !lenN_app. change (lenN (be4 a)) with 4%N. change (lenN (be4 b)) with 4%N. lia. Qed.

Section CNT.
Variable ld : leafdec.
Hypothesis LD : leaf_ok ld.
Variable fin : N -> N -> list tree -> res stsd.
Variable acc : bool.
Variables (nm : list N) (vf w2 : N) (kids : list ctree) (v : stsd).
Hypothesis Hvf : (vf < 4294967296)%N.
Hypothesis Hw2 : (w2 < 4294967296)%N.
Hypothesis HW : Forall (cwf ld) kids.
Hypothesis Hfin : fin vf w2 (map erase kids) = Ok v.
Let p : list N := be4 vf ++ be4 w2 ++ cencs kids.
Hypothesis Hfit : (lenN p < 4294967288)%N.
Let h : hdr := mkH nm (8 + lenN p) 8.

Lemma lenN_pc : lenN p = (8 + lenN (cencs kids))%N.
Proof. apply lenN_words. Qed.

Lemma cnt_windows buf q : window buf q p ->
  window buf q (be4 vf) /\ window buf (q + 4) (be4 w2) /\ window buf (q + 8) (cencs kids) /\ q + 8 + zlen (cencs kids) = q + zlen p.
Proof.
  intros W. apply window_app in W as [W1 W]. apply window_app in W as [W2 W3].
  change (zlen (be4 vf)) with 4 in *. change (zlen (be4 w2)) with 4 in *. replace (q + 4 + 4) with (q + 8) in W3 by lia.
  repeat split; try assumption. rewrite !zlen_lenN, lenN_pc. lia.
Qed.

Lemma cnt_end : addu64 0 (hsize h) = (16 + lenN (cencs kids))%N.
Proof. pose proof lenN_pc. cbn [hsize h]. rewrite addu64_small; lia. Qed.

(* the SliceReader decoder on the payload, wherever it stands in the caller's buffer *)
Lemma cnt_sr_window buf q cst fuel : window buf q p -> zlen buf < two63 -> zlen buf - q < Z.of_nat fuel ->
  exists cst', cnt_sr fin acc ld fuel h 0 (sr_at buf q cst) = (Ok v, sr_at buf (q + zlen p) cst').
Proof.
  intros W Hs Hfuel. pose proof lenN_pc. destruct (cnt_windows buf q W) as (W1 & W2 & W3 & <-).
  unfold cnt_sr. cbn [sr_at sr scost].
  rewrite (read_fixed_window 4 _ _ _ W1 eq_refl), be_be4 by exact Hvf.
  rewrite (read_fixed_window 4 _ _ _ W2 eq_refl), be_be4 by exact Hw2. cbn [rpos].
  replace (q + 4 + 4) with (q + 8) by lia. change (addu64 0 16) with 16%N. rewrite cnt_end.
  destruct (children_sr_canon ld LD kids fuel 16 16 (q + 8) buf (q + 8) cst HW W3 Hs) as [c' E];
    try lia; [destruct (window_range _ _ _ W); lia|].
  unfold sr_at in E. rewrite E. cbn [sr rerr]. rewrite andb_false_r, Hfin. exists c'. reflexivity.
Qed.

(* the reader-path decoder at any position of the io.Reader *)
Lemma cnt_r_window buf q cst fuel : window buf q p -> zlen buf < two63 -> zlen buf - q < Z.of_nat fuel ->
  exists cst', cnt_r fin ld fuel h 0 (ir_at buf q cst) = (Ok v, ir_at buf (q + zlen p) cst').
Proof.
  intros W Hs Hfuel. pose proof lenN_pc. destruct (cnt_windows buf q W) as (W1 & W2 & W3 & <-).
  unfold cnt_r.
  rewrite (read_full_window 4 _ _ _ _ W1 eq_refl eq_refl). change (zlen (be4 vf)) with 4.
  rewrite (read_full_window 4 _ _ _ _ W2 eq_refl eq_refl). change (zlen (be4 w2)) with 4.
  rewrite !be_be4 by assumption. replace (q + 4 + 4) with (q + 8) by lia. change (addu64 0 16) with 16%N. rewrite cnt_end.
  destruct (children_r_canon ld LD kids fuel 16 buf (q + 8) cst HW W3 Hs) as [c' E]; try lia.
  rewrite E, Hfin. exists c'. reflexivity.
Qed.

(* the delegating reader path (trep): readBoxBody, then the SliceReader decoder on a private reader over the payload *)
Lemma cnt_deleg_r_window buf q cst fuel : window buf q p -> zlen buf < two63 -> zlen p < Z.of_nat fuel ->
  fst (let '(rb, s1) := read_box_body h (ir_at buf q cst) in
       match rb with
       | Ok data => (fst (cnt_sr fin acc ld fuel h 0 (mkS (rnew data) (icost s1))), s1)
       | Err => (Err, s1) | Panic => (Panic, s1) | OutOfFuel => (OutOfFuel, s1)
       end) = Ok v.
Proof.
  intros W Hs Hf. destruct (read_box_body_window nm 8 _ _ _ cst W ltac:(lia)) as [c2 HB]. fold h in HB. rewrite HB. cbn [fst].
  destruct (window_range _ _ _ W). pose proof (zlen_nonneg p).
  destruct (cnt_sr_window p 0 (icost (ir_at buf (q + zlen p) c2)) fuel (window_all p)) as [c' E']; try lia.
  unfold sr_at in E'. unfold rnew. rewrite E'. reflexivity.
Qed.
End CNT.

(* ---------------------------------------------------------------- stsd *)
Section STSD.
Variable ld : leafdec.
Hypothesis LD : leaf_ok ld.
Variables (nm : list N) (vf cnt : N) (kids : list ctree).
Hypothesis Hvf : (vf < 4294967296)%N.
Hypothesis Hcnt : lenN kids = cnt.
Hypothesis HW : Forall (cwf ld) kids.
Let p : list N := be4 vf ++ be4 cnt ++ cencs kids.
Hypothesis Hfit : (lenN p < 4294967288)%N.
Let h : hdr := mkH nm (8 + lenN p) 8.

Definition stsd_val : stsd := mkStsd (vf / 16777216) (N.land vf flags_mask) cnt (map erase kids).

Lemma cnt32 : (cnt < 4294967296)%N.
Proof. pose proof (lenN_words vf cnt (cencs kids)). pose proof (kids_le_bytes ld kids HW). unfold p in Hfit. lia. Qed.

Lemma finish_ok : stsd_finish vf cnt (map erase kids) = Ok stsd_val.
Proof.
  unfold stsd_finish, stsd_val. replace (lenN (map erase kids)) with cnt by (unfold lenN in *; rewrite map_length; auto).
  rewrite N.eqb_refl. cbn [negb]. rewrite N.mod_small by exact cnt32. rewrite N.eqb_refl. reflexivity.
Qed.

(* the pair before the payload, wherever it stands: same value, both consume exactly the payload; Size() = 8 + len payload *)
Theorem stsd_pair_window : forall buf q cst cst2 fuel,
  window buf q p -> zlen buf < two63 -> zlen buf - q < Z.of_nat fuel ->
  fst (stsd_sr ld fuel h 0 (sr_at buf q cst)) = Ok stsd_val /\
  fst (stsd_r ld fuel h 0 (ir_at buf q cst2)) = Ok stsd_val /\
  stsd_size stsd_val = (8 + lenN p)%N.
Proof.
  intros buf q cst cst2 fuel W Hs Hf.
  destruct (cnt_sr_window ld LD stsd_finish true nm vf cnt kids stsd_val Hvf cnt32 HW finish_ok Hfit _ _ cst fuel W Hs Hf) as [c1 E1].
  destruct (cnt_r_window ld LD stsd_finish nm vf cnt kids stsd_val Hvf cnt32 HW finish_ok Hfit _ _ cst2 fuel W Hs Hf) as [c2 E2].
  split; [exact (f_equal fst E1)|]. split; [exact (f_equal fst E2)|].
  pose proof (lenN_words vf cnt (cencs kids)). unfold p in *. unfold stsd_size, stsd_val. cbn [sd_kids].
  rewrite (sum_sizes_erase ld), addu64_small by (exact HW || lia). lia.
Qed.
End STSD.
