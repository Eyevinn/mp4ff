(* C14StreamProofs.v — the byte-stream helpers (shared loop skeleton bs_loop) on `stream us`:
   the loop visits exactly the start-code positions of the naive scan; at each of them the previous
   unit is recovered by trimming; the helpers return the obvious list functions of the unit list. *)
From V.lib Require Import Base.
From V.c14 Require Import C14Spec C14Model C14ScanProofs C14ConvProofs C14WalkProofs.
Local Open Scope Z_scope.

(* on ANY byte string the loop skeleton is a fold of its body over the start-code positions (bs_loop_events) *)
Fixpoint bs_events {St R : Type} (body : Z -> St -> res (St + R)) (ps : list Z) (st : St) : res (St + R) :=
  match ps with
  | [] => Ok (inl st)
  | p :: t =>
      do r <- body p st;
      match r with
      | inl st' => bs_events body t st'
      | inr x => Ok (inr x)
      end
  end.

Lemma sc_at_spec d i : 0 <= i -> i + 3 < Zlen d -> sc_at d i = Ok (is_sc d i).
Proof.
  intros H0 H1. unfold sc_at, is_sc.
  rewrite (getb_ok d i), (getb_ok d (i + 1)), (getb_ok d (i + 2)) by lia. cbn [rbind].
  replace (0 <=? i) with true by lia. replace (i + 3 <? Zlen d) with true by lia. cbn [andb].
  destruct (is0 (zget d i)); [|reflexivity]. destruct (is0 (zget d (i + 1))); reflexivity.
Qed.

Lemma bs_loop_events {St R} (body : Z -> St -> res (St + R)) d : forall fuel i st,
  0 <= i -> (Z.to_nat (Zlen d - 3 - i) < fuel)%nat ->
  bs_loop body fuel d (Zlen d) i st =
  bs_events body (filter (is_sc d) (zrange i (Z.to_nat (Zlen d - 3 - i)))) st.
Proof.
  induction fuel as [|f IH]; intros i st H0 Hf; [lia|].
  cbn [bs_loop]. destruct (Z.ltb_spec i (Zlen d - 3)) as [Hlt|Hge].
  - replace (Z.to_nat (Zlen d - 3 - i)) with (S (Z.to_nat (Zlen d - 3 - (i + 1)))) by lia.
    cbn [zrange filter]. rewrite sc_at_spec by lia. cbn [rbind].
    destruct (is_sc d i).
    + cbn [bs_events]. destruct (body i st) as [[st'|x]| | |]; cbn [rbind]; try reflexivity.
      apply IH; lia.
    + apply IH; lia.
  - replace (Z.to_nat (Zlen d - 3 - i)) with 0%nat by lia. reflexivity.
Qed.

Fixpoint sc_positions (base : Z) (us : list (bool * list N)) : list Z :=
  match us with
  | [] => []
  | (f, n) :: t => (base + sclen f - 3) :: sc_positions (base + sclen f + Zlen n) t
  end.

Lemma sc_positions_expected : forall us base,
  map (fun e : Z * Z => snd e - 3) (expected_scs base us) = sc_positions base us.
Proof.
  induction us as [|[f n] t IH]; intros base; [reflexivity|].
  cbn [expected_scs map sc_positions snd]. f_equal. apply IH.
Qed.

Lemma flat_map_scs_filter l r :
  flat_map (scs l) r = map (fun p => (sc_len l p, p + 3)) (filter (is_sc l) r).
Proof.
  induction r as [|p t IH]; [reflexivity|].
  cbn [flat_map filter]. unfold scs at 1. destruct (is_sc l p); cbn [map app]; rewrite IH; reflexivity.
Qed.

Lemma bs_loop_stream {St R} (body : Z -> St -> res (St + R)) us st : wf_units us = true ->
  bs_loop body (S (length (stream us))) (stream us) (Zlen (stream us)) 0 st =
  bs_events body (sc_positions 0 us) st.
Proof.
  intros Hwf. rewrite bs_loop_events by (unfold Zlen; lia). f_equal.
  rewrite <- sc_positions_expected, <- nscan_stream, nscan_naive by exact Hwf.
  rewrite <- (naive_scan_upto _ (Z.to_nat (Zlen (stream us) - 3 - 0))) by (unfold Zlen; lia).
  rewrite flat_map_scs_filter, map_map. cbn [snd].
  rewrite (map_ext _ (fun p => p)) by (intros; lia). symmetry. apply map_id.
Qed.

Lemma wf_units_cons f n t : wf_units ((f, n) :: t) = true -> wf_nalu n = true /\ n <> [] /\ wf_units t = true.
Proof.
  cbn [wf_units forallb snd]. intros H. apply andb_prop in H. destruct H as [Hn Ht].
  destruct (wf_nalu_parts n Hn) as [Hne _]. auto.
Qed.

Lemma Zlen_sc f : Zlen (start_code f) = sclen f.
Proof. destruct f; reflexivity. Qed.

Lemma trim_stop_le f d cur j e : j <= cur -> trim_loop (S f) d cur j e = Ok e.
Proof. intros H. cbn [trim_loop]. replace (j >? cur) with false by lia. reflexivity. Qed.

Lemma trim_stop_nz f d cur j e b : getb d j = Ok b -> is0 b = false -> trim_loop (S f) d cur j e = Ok e.
Proof.
  intros Hg Hb. cbn [trim_loop]. destruct (j >? cur); [|reflexivity].
  rewrite Hg. cbn [rbind]. rewrite Hb. reflexivity.
Qed.

Lemma trim_step f d cur j e b : j > cur -> getb d j = Ok b -> is0 b = true ->
  trim_loop (S f) d cur j e = trim_loop f d cur (j - 1) j.
Proof.
  intros Hj Hg Hb. cbn [trim_loop]. replace (j >? cur) with true by lia.
  rewrite Hg. cbn [rbind]. rewrite Hb. reflexivity.
Qed.

(* the last byte of a non-empty unit sits just before what follows it *)
Lemma getb_last (P : list N) n R : n <> [] ->
  getb (P ++ n ++ R) (Zlen P + Zlen n - 1) = Ok (last n 0%N).
Proof.
  intros Hne. destruct (exists_last Hne) as [n0 [x E]]. subst n.
  rewrite last_last. rewrite <- !app_assoc. cbn [app].
  replace (P ++ n0 ++ x :: R) with ((P ++ n0) ++ x :: R) by (rewrite <- app_assoc; reflexivity).
  replace (Zlen P + Zlen (n0 ++ [x]) - 1) with (Zlen (P ++ n0)).
  - apply getb_mid.
  - rewrite !Zlen_app. change (Zlen [x]) with 1. lia.
Qed.

Lemma trim_at_sc (P : list N) n f R d :
  n <> [] -> last_nonzero n = true -> d = P ++ n ++ start_code f ++ R ->
  trim_end d (Zlen P) (Zlen P + Zlen n + sclen f - 3) = Ok (Zlen P + Zlen n).
Proof.
  intros Hne Hl Hd. unfold trim_end.
  assert (Hlast : getb d (Zlen P + Zlen n - 1) = Ok (last n 0%N)) by (subst d; apply getb_last; exact Hne).
  unfold last_nonzero in Hl. apply negb_true_iff in Hl.
  assert (Hn1 : 1 <= Zlen n).
  { destruct n as [|x0 n0]; [congruence|]. rewrite Zlen_cons. pose proof (Zlen_nonneg n0). lia. }
  destruct f; cbn [sclen].
  - (* 4-byte start code: one zero is trimmed *)
    assert (Hlen : exists k, length d = S k).
    { subst d. rewrite !app_length. cbn [start_code length]. exists (length P + (length n + (3 + length R)))%nat. lia. }
    destruct Hlen as [k Hk]. rewrite Hk.
    assert (Hz : getb d (Zlen P + Zlen n) = Ok 0%N).
    { subst d. cbn [start_code app]. rewrite app_assoc, <- Zlen_app. apply getb_mid. }
    replace (Zlen P + Zlen n + 4 - 3 - 1) with (Zlen P + Zlen n) by lia.
    rewrite (trim_step _ d _ _ _ 0%N) by (try exact Hz; try reflexivity; lia).
    eapply trim_stop_nz; [exact Hlast|exact Hl].
  - replace (Zlen P + Zlen n + 3 - 3 - 1) with (Zlen P + Zlen n - 1) by lia.
    replace (Zlen P + Zlen n + 3 - 3) with (Zlen P + Zlen n) by lia.
    eapply trim_stop_nz; [exact Hlast|exact Hl].
Qed.

(* The loop is at the start code in front of unit n'.  o is the unit in front of that start code, pending
   since the previous event (None at the first start code, where currNaluStart is still -1); P is everything
   before the pending unit. *)
Definition pend (o : option (list N)) : list N := match o with Some n => n | None => [] end.
Definition cur_at (P : list N) (o : option (list N)) : Z := match o with Some _ => Zlen P | None => -1 end.
Definition pending (P : list N) (o : option (list N)) : Prop :=
  match o with Some n => wf_nalu n = true /\ 0 < Zlen P | None => P = [] end.

Section AtStartCode.
  (* d is laid out as P, the pending unit, the start code the loop is at (at position i), the next unit n' and
     the rest R; cur is currNaluStart *)
  Variables (P : list N) (o : option (list N)) (f : bool) (n' R d : list N) (i cur : Z).
  Hypotheses (Hp : pending P o) (Hn' : n' <> []) (Hd : d = P ++ pend o ++ start_code f ++ n' ++ R)
             (Hi : i = Zlen P + Zlen (pend o) + sclen f - 3) (Hcur : cur = cur_at P o).

  Lemma event_facts :
    match o with
    | Some n => (cur >? 0) = true /\ trim_end d cur i = Ok (cur + Zlen n) /\
                slice d cur (cur + Zlen n) = Ok n /\ getb d cur = Ok (hd0 n)
    | None => (cur >? 0) = false
    end /\
    getb d (i + 3) = Ok (hd0 n') /\
    (i + 3 <? Zlen d) = true /\
    i + 3 = Zlen (P ++ pend o ++ start_code f).
  Proof.
    assert (HP' : i + 3 = Zlen (P ++ pend o ++ start_code f)) by (rewrite Hi, !Zlen_app, Zlen_sc; lia).
    assert (Hd' : d = (P ++ pend o ++ start_code f) ++ n' ++ R) by (rewrite Hd, <- !app_assoc; reflexivity).
    destruct n' as [|y n0']; [congruence|].
    split; [|split; [|split]]; try assumption.
    - destruct o as [n|]; [|rewrite Hcur; reflexivity]. cbn [cur_at pend] in *. destruct Hp as [Hwf HP].
      destruct (wf_nalu_parts n Hwf) as [Hne [Hl _]]. rewrite Hcur, Hi.
      split; [lia|]. split; [apply (trim_at_sc P n f ((y :: n0') ++ R) d Hne Hl Hd)|].
      split; [rewrite Hd; apply slice_mid|].
      rewrite Hd. destruct n as [|x n0]; [congruence|]. apply getb_mid.
    - rewrite HP', Hd'. apply getb_mid.
    - rewrite HP', Hd', !Zlen_app, Zlen_cons.
      pose proof (Zlen_nonneg n0'). pose proof (Zlen_nonneg R). lia.
  Qed.

  Lemma enb_body_at acc :
    enb_body d i (cur, acc)
    = Ok (inl (Zlen (P ++ pend o ++ start_code f), match o with Some n => n :: acc | None => acc end)).
  Proof.
    destruct event_facts as (E1 & _ & _ & E6). unfold enb_body. rewrite E6.
    destruct o as [n|]; [destruct E1 as (-> & E1 & E2 & _)|rewrite E1; reflexivity].
    rewrite E1. cbn [rbind]. rewrite E2. reflexivity.
  Qed.

  Lemma gfv_body_at :
    gfv_body d i cur
    = Ok (match o with
          | Some n => if avc_is_video (utype avc_type n) then inr (cur, cur + Zlen n)
                      else inl (Zlen (P ++ pend o ++ start_code f))
          | None => inl (Zlen (P ++ pend o ++ start_code f))
          end).
  Proof.
    destruct event_facts as (E1 & _ & _ & E6). unfold gfv_body. rewrite E6.
    destruct o as [n|]; [destruct E1 as (-> & E1 & _ & E3)|rewrite E1; reflexivity].
    rewrite E1. cbn [rbind]. rewrite E3. cbn [rbind]. fold (utype avc_type n).
    destruct (avc_is_video (utype avc_type n)); reflexivity.
  Qed.

  Lemma enot_body_at ty vlim want stop acc :
    enot_body ty vlim want stop d i (cur, acc)
    = Ok (let acc' := match o with
                      | Some n => if N.eqb (utype ty n) want then n :: acc else acc
                      | None => acc
                      end in
          if stop && (utype ty n' <? vlim)%N then inr acc'
          else inl (Zlen (P ++ pend o ++ start_code f), acc')).
  Proof.
    destruct event_facts as (E1 & E4 & E5 & E6). unfold enot_body. rewrite E5, E4, E6. cbn [rbind].
    fold (utype ty n').
    destruct o as [n|]; [destruct E1 as (-> & E1 & E2 & E3)|rewrite E1]; cbn [rbind].
    - rewrite E1. cbn [rbind]. rewrite E3. cbn [rbind]. fold (utype ty n).
      destruct (N.eqb (utype ty n) want); [rewrite E2|]; cbn [rbind];
        destruct (stop && (utype ty n' <? vlim)%N); reflexivity.
    - destruct (stop && (utype ty n' <? vlim)%N); reflexivity.
  Qed.

  (* the stop test of the byte-stream loop is the video class of the sample walker *)
  Lemma gpsb_body_at ty cls vlim acc : (forall t, (t <? vlim)%N = N.eqb (cls t) 3) ->
    gpsb_body ty cls vlim d i (cur, acc)
    = Ok (let acc' := match o with
                      | Some n => if (cls (utype ty n) <=? 2)%N then ps_add (cls (utype ty n)) n acc else acc
                      | None => acc
                      end in
          if N.eqb (cls (utype ty n')) 3 then inr acc'
          else inl (Zlen (P ++ pend o ++ start_code f), acc')).
  Proof.
    intros Hv. destruct event_facts as (E1 & E4 & _ & E6). unfold gpsb_body. rewrite E4, E6. cbn [rbind].
    fold (utype ty n'). rewrite Hv.
    destruct o as [n|]; [destruct E1 as (-> & E1 & E2 & E3)|rewrite E1]; cbn [rbind].
    - rewrite E1. cbn [rbind]. rewrite E3. cbn [rbind]. fold (utype ty n).
      destruct (cls (utype ty n) <=? 2)%N; [rewrite E2|]; cbn [rbind];
        destruct (N.eqb (cls (utype ty n')) 3); reflexivity.
    - destruct (N.eqb (cls (utype ty n')) 3); reflexivity.
  Qed.
End AtStartCode.

Lemma last_unit_facts (P : list N) n d : pending P (Some n) -> d = P ++ n ++ stream [] ->
  slice d (Zlen P) (Zlen d) = Ok n /\ getb d (Zlen P) = Ok (hd0 n) /\ 0 < Zlen P.
Proof.
  intros [Hn HP] ->. destruct (wf_nalu_parts n Hn) as [Hne _]. split; [|split; [|exact HP]].
  - rewrite !Zlen_app, Z.add_0_r. apply slice_mid.
  - destruct n as [|x n0]; [congruence|]. apply getb_mid.
Qed.

Lemma pending_first f n : wf_nalu n = true -> pending (start_code f) (Some n).
Proof. intros Hn. split; [exact Hn|destruct f; reflexivity]. Qed.

Lemma pending_next (P n : list N) f n' : pending P (Some n) -> wf_nalu n' = true ->
  pending (P ++ n ++ start_code f) (Some n').
Proof.
  intros [_ HP] Hn'. split; [exact Hn'|]. rewrite !Zlen_app.
  pose proof (Zlen_nonneg n). pose proof (Zlen_nonneg (start_code f)). lia.
Qed.

(* the start codes behind the next unit, seen from the prefix that now ends with the start code in front of it *)
Lemma sc_positions_next (P n : list N) f (n' : list N) t :
  sc_positions (Zlen P + Zlen n + sclen f + Zlen n') t = sc_positions (Zlen (P ++ n ++ start_code f) + Zlen n') t.
Proof. rewrite !Zlen_app, Zlen_sc. f_equal. lia. Qed.

(* Each helper below: the events behind a pending unit by induction on the units that follow, then the first
   event.  at_sc discharges the premises of a *_body_at lemma: layout of d, position, currNaluStart. *)
Ltac at_sc := reflexivity || (cbn [pending pend]; auto).

(* ExtractNalusFromByteStream *)
Lemma enb_events_spec : forall us P n acc d,
  pending P (Some n) -> wf_units us = true -> d = P ++ n ++ stream us ->
  (do r <- bs_events (enb_body d) (sc_positions (Zlen P + Zlen n) us) (Zlen P, acc); enb_finish d r)
  = Ok (rev acc ++ n :: map snd us).
Proof.
  induction us as [|[f n'] t IH]; intros P n acc d Hp Hus Hd.
  - destruct (last_unit_facts P n d Hp Hd) as (L1 & _ & HP).
    cbn [sc_positions bs_events rbind enb_finish map]. replace (Zlen P <? 0) with false by lia.
    rewrite L1. reflexivity.
  - destruct (wf_units_cons f n' t Hus) as [Hn' [Hne' Ht]]. cbn [stream] in Hd.
    cbn [sc_positions bs_events].
    rewrite (enb_body_at P (Some n) f n' (stream t) d) by at_sc. cbn [rbind pend].
    rewrite sc_positions_next, (IH _ n' (n :: acc) d (pending_next P n f n' Hp Hn') Ht).
    + cbn [rev map snd]. rewrite <- app_assoc. reflexivity.
    + subst d. rewrite <- !app_assoc. reflexivity.
Qed.

Lemma enb_stream us : wf_units us = true ->
  extract_nalus_from_byte_stream (stream us) = Ok (map snd us).
Proof.
  intros Hwf. destruct us as [|[f n] t]; [reflexivity|].
  destruct (wf_units_cons f n t Hwf) as [Hn [Hne Ht]].
  unfold extract_nalus_from_byte_stream. rewrite bs_loop_stream by exact Hwf.
  cbn [sc_positions bs_events].
  rewrite (enb_body_at [] None f n (stream t)) by at_sc. cbn [rbind pend app].
  rewrite Z.add_0_l, <- (Zlen_sc f).
  exact (enb_events_spec t _ n [] _ (pending_first f n Hn) Ht eq_refl).
Qed.

(* GetFirstAVCVideoNALUFromByteStream *)
Lemma gfv_events_spec : forall us P n d,
  pending P (Some n) -> wf_units us = true -> d = P ++ n ++ stream us ->
  (do r <- bs_events (gfv_body d) (sc_positions (Zlen P + Zlen n) us) (Zlen P); gfv_finish d r)
  = Ok (first_video avc_type avc_is_video (n :: map snd us)).
Proof.
  induction us as [|[f n'] t IH]; intros P n d Hp Hus Hd.
  - destruct (last_unit_facts P n d Hp Hd) as (L1 & L2 & HP).
    cbn [sc_positions bs_events rbind gfv_finish map first_video]. replace (Zlen P >? 0) with true by lia.
    rewrite L2. cbn [rbind]. fold (utype avc_type n).
    destruct (avc_is_video (utype avc_type n)); [exact L1|reflexivity].
  - destruct (wf_units_cons f n' t Hus) as [Hn' [Hne' Ht]]. cbn [stream] in Hd.
    cbn [sc_positions bs_events].
    rewrite (gfv_body_at P (Some n) f n' (stream t) d) by at_sc. cbn [rbind pend map snd first_video].
    destruct (avc_is_video (utype avc_type n)); cbn [rbind gfv_finish].
    + destruct Hp as [_ HP]. replace (Zlen P =? 0) with false by lia. subst d. apply slice_mid.
    + rewrite sc_positions_next. apply (IH _ n' d (pending_next P n f n' Hp Hn') Ht).
      subst d. rewrite <- !app_assoc. reflexivity.
Qed.

Lemma gfv_stream us : wf_units us = true ->
  avc_get_first_video_nalu (stream us) = Ok (first_video avc_type avc_is_video (map snd us)).
Proof.
  intros Hwf. destruct us as [|[f n] t]; [reflexivity|].
  destruct (wf_units_cons f n t Hwf) as [Hn [Hne Ht]].
  unfold avc_get_first_video_nalu. rewrite bs_loop_stream by exact Hwf.
  cbn [sc_positions bs_events].
  rewrite (gfv_body_at [] None f n (stream t)) by at_sc. cbn [rbind pend app].
  rewrite Z.add_0_l, <- (Zlen_sc f).
  exact (gfv_events_spec t _ n _ (pending_first f n Hn) Ht eq_refl).
Qed.

(* ExtractNalusOfTypeFromByteStream *)
Definition sel_units (ty : N -> N) (vlim : N) (stop : bool) (ns : list (list N)) : list (list N) :=
  if stop then before_video ty (fun t => (t <? vlim)%N) ns else ns.

Lemma sel_units_cons ty vlim stop n t :
  sel_units ty vlim stop (n :: t) =
  if stop && (utype ty n <? vlim)%N then [] else n :: sel_units ty vlim stop t.
Proof. unfold sel_units. destruct stop; reflexivity. Qed.

Lemma enot_events_spec ty vlim want stop : forall us P n acc d,
  pending P (Some n) -> wf_units us = true -> d = P ++ n ++ stream us ->
  (do r <- bs_events (enot_body ty vlim want stop d) (sc_positions (Zlen P + Zlen n) us) (Zlen P, acc);
   enot_finish ty want d r)
  = Ok (rev acc ++ of_type ty want (n :: sel_units ty vlim stop (map snd us))).
Proof.
  induction us as [|[f n'] t IH]; intros P n acc d Hp Hus Hd.
  - destruct (last_unit_facts P n d Hp Hd) as (L1 & L2 & HP).
    cbn [sc_positions bs_events rbind enot_finish map]. replace (Zlen P <? 0) with false by lia.
    rewrite L2. cbn [rbind]. fold (utype ty n).
    replace (sel_units ty vlim stop []) with (@nil (list N)) by (destruct stop; reflexivity).
    cbn [of_type filter]. destruct (N.eqb (utype ty n) want); [rewrite L1|rewrite app_nil_r]; reflexivity.
  - destruct (wf_units_cons f n' t Hus) as [Hn' [Hne' Ht]]. cbn [stream] in Hd.
    cbn [sc_positions bs_events].
    rewrite (enot_body_at P (Some n) f n' (stream t) d) by at_sc.
    cbn [rbind pend map snd]. rewrite sel_units_cons. cbn [of_type filter]. cbv zeta.
    destruct (stop && (utype ty n' <? vlim)%N); cbn [rbind enot_finish filter].
    + (* the next unit is a video unit and stopAtVideo: return *)
      destruct (N.eqb (utype ty n) want); cbn [rev]; rewrite ?app_nil_r; reflexivity.
    + rewrite sc_positions_next, (IH _ n' _ d (pending_next P n f n' Hp Hn') Ht).
      * unfold of_type. destruct (N.eqb (utype ty n) want); cbn [rev]; rewrite <- ?app_assoc; reflexivity.
      * subst d. rewrite <- !app_assoc. reflexivity.
Qed.

Lemma enot_stream ty vlim want stop us : wf_units us = true ->
  extract_nalus_of_type ty vlim want stop (stream us)
  = Ok (of_type ty want (sel_units ty vlim stop (map snd us))).
Proof.
  intros Hwf. destruct us as [|[f n] t]; [destruct stop; reflexivity|].
  destruct (wf_units_cons f n t Hwf) as [Hn [Hne Ht]].
  unfold extract_nalus_of_type. rewrite bs_loop_stream by exact Hwf.
  cbn [sc_positions bs_events].
  rewrite (enot_body_at [] None f n (stream t)) by at_sc.
  cbn [rbind pend app map snd]. rewrite sel_units_cons. cbv zeta.
  destruct (stop && (utype ty n <? vlim)%N); cbn [rbind enot_finish]; [reflexivity|].
  rewrite Z.add_0_l, <- (Zlen_sc f).
  exact (enot_events_spec ty vlim want stop t _ n [] _ (pending_first f n Hn) Ht eq_refl).
Qed.

(* the stop test written with the video predicate of the codec *)
Lemma enot_stream_isv ty vlim isv : (forall t, (t <? vlim)%N = isv t) -> forall want stop us,
  wf_units us = true ->
  extract_nalus_of_type ty vlim want stop (stream us)
  = Ok (of_type ty want (if stop then before_video ty isv (map snd us) else map snd us)).
Proof.
  intros Hv want stop us Hwf. rewrite enot_stream by exact Hwf. unfold sel_units.
  destruct stop; [|reflexivity]. rewrite (before_video_ext ty _ isv) by exact Hv. reflexivity.
Qed.

Lemma avc_lt6 t : (t <? 6)%N = avc_is_video t.
Proof. unfold avc_is_video. destruct (N.leb_spec t 5); destruct (N.ltb_spec t 6); try lia; reflexivity. Qed.
Lemma hevc_lt32 t : (t <? 32)%N = hevc_is_video t.
Proof. unfold hevc_is_video. destruct (N.leb_spec t 31); destruct (N.ltb_spec t 32); try lia; reflexivity. Qed.

(* GetParameterSetsFromByteStream *)
Section Gpsb.
  Variables (ty cls : N -> N) (vlim : N).
  (* the stop test of the byte-stream loop is the video class of the sample walker *)
  Hypothesis Hv : forall t, (t <? vlim)%N = N.eqb (cls t) 3.

  Lemma gpsb_events_spec : forall us P n acc d,
    pending P (Some n) -> wf_units us = true -> d = P ++ n ++ stream us ->
    N.eqb (cls (utype ty n)) 3 = false ->
    (do r <- bs_events (gpsb_body ty cls vlim d) (sc_positions (Zlen P + Zlen n) us) (Zlen P, acc);
     gpsb_finish ty cls d r)
    = Ok (gps_fold ty cls (n :: map snd us) acc).
  Proof.
    induction us as [|[f n'] t IH]; intros P n acc d Hp Hus Hd Hnv; rewrite gps_fold_go by exact Hnv.
    - destruct (last_unit_facts P n d Hp Hd) as (L1 & L2 & HP).
      cbn [sc_positions bs_events rbind gpsb_finish map gps_fold]. replace (Zlen P >? 0) with true by lia.
      rewrite L2. cbn [rbind]. fold (utype ty n).
      destruct (cls (utype ty n) <=? 2)%N; [rewrite L1|]; reflexivity.
    - destruct (wf_units_cons f n' t Hus) as [Hn' [Hne' Ht]]. cbn [stream] in Hd.
      cbn [sc_positions bs_events].
      rewrite (gpsb_body_at P (Some n) f n' (stream t) d) by at_sc.
      cbn [rbind pend map snd]. cbv zeta.
      destruct (N.eqb (cls (utype ty n')) 3) eqn:Ev; cbn [rbind gpsb_finish].
      + rewrite gps_fold_stop by exact Ev. reflexivity.
      + rewrite sc_positions_next.
        apply (IH _ n' _ d (pending_next P n f n' Hp Hn') Ht); [|exact Ev].
        subst d. rewrite <- !app_assoc. reflexivity.
  Qed.

  Lemma gpsb_stream us : wf_units us = true ->
    get_parameter_sets_from_byte_stream ty cls vlim (stream us) = Ok (gps_fold ty cls (map snd us) ([], [], [])).
  Proof.
    intros Hwf. destruct us as [|[f n] t]; [reflexivity|].
    destruct (wf_units_cons f n t Hwf) as [Hn [Hne Ht]].
    unfold get_parameter_sets_from_byte_stream. rewrite bs_loop_stream by exact Hwf.
    cbn [sc_positions bs_events].
    rewrite (gpsb_body_at [] None f n (stream t)) by at_sc.
    cbn [rbind pend app map snd]. cbv zeta.
    destruct (N.eqb (cls (utype ty n)) 3) eqn:Ev; cbn [rbind gpsb_finish].
    - rewrite gps_fold_stop by exact Ev. reflexivity.
    - rewrite Z.add_0_l, <- (Zlen_sc f).
      exact (gpsb_events_spec t _ n _ _ (pending_first f n Hn) Ht eq_refl Ev).
  Qed.
End Gpsb.

Lemma gpsb_stream_avc us : wf_units us = true ->
  avc_get_parameter_sets_from_byte_stream (stream us) =
    Ok ([], of_type avc_type 7 (before_video avc_type avc_is_video (map snd us)),
            of_type avc_type 8 (before_video avc_type avc_is_video (map snd us))).
Proof.
  intros Hwf. unfold avc_get_parameter_sets_from_byte_stream.
  rewrite gpsb_stream, gps_fold_avc; [reflexivity| |exact Hwf].
  intros t. rewrite avc_lt6. symmetry. apply avc_ps_class_eqb.
Qed.

Lemma gpsb_stream_hevc us : wf_units us = true ->
  hevc_get_parameter_sets_from_byte_stream (stream us) =
    Ok (of_type hevc_type 32 (before_video hevc_type hevc_is_video (map snd us)),
        of_type hevc_type 33 (before_video hevc_type hevc_is_video (map snd us)),
        of_type hevc_type 34 (before_video hevc_type hevc_is_video (map snd us))).
Proof.
  intros Hwf. unfold hevc_get_parameter_sets_from_byte_stream.
  rewrite gpsb_stream, gps_fold_hevc; [reflexivity| |exact Hwf].
  intros t. rewrite hevc_lt32. symmetry. apply hevc_ps_class_eqb.
Qed.
