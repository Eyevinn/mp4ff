(* C14WordProofs.v — the zero-byte word trick equals "some byte is zero".
   Byte-wise borrow-chain induction over the bytes of the word; no sweep over 2^64 values. *)
From V.lib Require Import Base.
From V.c14 Require Import C14Spec C14Model.
Local Open Scope N_scope.

Lemma testbit_split a x n : a < 256 ->
  N.testbit (a + 256 * x) n = if n <? 8 then N.testbit a n else N.testbit x (n - 8).
Proof.
  intros Ha. change 256 with (2 ^ 8) in *.
  destruct (N.ltb_spec n 8) as [Hn|Hn].
  - rewrite <- (N.mod_pow2_bits_low (a + 2 ^ 8 * x) 8 n) by exact Hn.
    f_equal. rewrite (N.mul_comm (2 ^ 8) x), N.mod_add by discriminate.
    apply N.mod_small. exact Ha.
  - replace n with ((n - 8) + 8) at 1 by lia.
    rewrite <- N.div_pow2_bits. f_equal.
    replace (a + 2 ^ 8 * x) with (x * 2 ^ 8 + a) by lia.
    rewrite N.div_add_l by discriminate. rewrite (N.div_small a) by exact Ha. lia.
Qed.

Lemma small_of_high_bits z : (forall n, 8 <= n -> N.testbit z n = false) -> z < 256.
Proof.
  intros H. assert (E : z mod 2 ^ 8 = z).
  { apply N.bits_inj. intros n. destruct (N.lt_ge_cases n 8) as [Hn|Hn].
    - apply N.mod_pow2_bits_low. exact Hn.
    - rewrite N.mod_pow2_bits_high by exact Hn. symmetry. apply H. exact Hn. }
  rewrite <- E. apply N.mod_lt. discriminate.
Qed.

Lemma high_bits_of_small a n : a < 256 -> 8 <= n -> N.testbit a n = false.
Proof.
  intros Ha Hn. rewrite <- (N.mod_small a (2 ^ 8)) by exact Ha.
  apply N.mod_pow2_bits_high. exact Hn.
Qed.

Lemma land_small a b : a < 256 -> N.land a b < 256.
Proof.
  intros Ha. apply small_of_high_bits. intros n Hn.
  rewrite N.land_spec, (high_bits_of_small a n Ha Hn). reflexivity.
Qed.

Lemma lxor_small a b : a < 256 -> b < 256 -> N.lxor a b < 256.
Proof.
  intros Ha Hb. apply small_of_high_bits. intros n Hn.
  rewrite N.lxor_spec, (high_bits_of_small a n Ha Hn), (high_bits_of_small b n Hb Hn). reflexivity.
Qed.

Lemma land_split a b x y : a < 256 -> b < 256 ->
  N.land (a + 256 * x) (b + 256 * y) = N.land a b + 256 * N.land x y.
Proof.
  intros Ha Hb. apply N.bits_inj. intros n.
  rewrite N.land_spec, !testbit_split by (try assumption; apply land_small; assumption).
  destruct (n <? 8); rewrite N.land_spec; reflexivity.
Qed.

Lemma lxor_split a b x y : a < 256 -> b < 256 ->
  N.lxor (a + 256 * x) (b + 256 * y) = N.lxor a b + 256 * N.lxor x y.
Proof.
  intros Ha Hb. apply N.bits_inj. intros n.
  rewrite N.lxor_spec, !testbit_split by (try assumption; apply lxor_small; assumption).
  destruct (n <? 8); rewrite N.lxor_spec; reflexivity.
Qed.

Lemma mod_split c y W : c < 256 -> 0 < W -> (c + 256 * y) mod (256 * W) = c + 256 * (y mod W).
Proof.
  intros Hc HW. rewrite N.mod_mul_r by lia.
  replace ((c + 256 * y) mod 256) with c by lia.
  replace ((c + 256 * y) / 256) with y by lia. reflexivity.
Qed.

(* 0x01..01, 0x80..80, 0xff..ff with n bytes *)
Definition rep_word (v : N) (n : nat) : N := word_le (repeat v n).

Definition hz_gen (n : nat) (x : N) : N :=
  N.land (N.land ((x + 256 ^ N.of_nat n - rep_word 1 n) mod 256 ^ N.of_nat n)
                 (N.lxor x (rep_word 255 n)))
         (rep_word 128 n).

Lemma rep_word_S v n : rep_word v (S n) = v + 256 * rep_word v n.
Proof. reflexivity. Qed.

Lemma pow256_S n : 256 ^ N.of_nat (S n) = 256 * 256 ^ N.of_nat n.
Proof. rewrite Nat2N.inj_succ, N.pow_succ_r'. reflexivity. Qed.

Lemma pow256_pos n : 0 < 256 ^ N.of_nat n.
Proof. apply N.neq_0_lt_0, N.pow_nonzero. discriminate. Qed.

Lemma rep1_lt n : rep_word 1 n < 256 ^ N.of_nat n.
Proof.
  induction n as [|n IH].
  - cbn. lia.
  - rewrite rep_word_S, pow256_S. lia.
Qed.

(* for a non-zero byte b the low byte of (x - 0x01..) & ~x & 0x80.. vanishes *)
Lemma low_byte_clear_all :
  forallb (fun b => N.land (N.land (b - 1) (N.lxor b 255)) 128 =? 0) (map N.of_nat (seq 1 255)) = true.
Proof. vm_compute. reflexivity. Qed.

Lemma low_byte_clear b : 1 <= b -> b < 256 -> N.land (N.land (b - 1) (N.lxor b 255)) 128 = 0.
Proof.
  intros H1 H2. pose proof low_byte_clear_all as H. rewrite forallb_forall in H.
  apply N.eqb_eq. apply H. rewrite <- (N2Nat.id b). apply in_map. apply in_seq. lia.
Qed.

Lemma hz_gen_correct bs :
  bytes_ok bs = true -> (hz_gen (length bs) (word_le bs) =? 0) = negb (existsb is0 bs).
Proof.
  induction bs as [|b t IH]; intros Hok.
  - reflexivity.
  - rewrite bytes_ok_cons in Hok. apply andb_prop in Hok. destruct Hok as [Hb Ht].
    unfold byte_ok in Hb. apply N.ltb_lt in Hb.
    specialize (IH Ht).
    cbn [length existsb word_le]. unfold hz_gen in *.
    rewrite !rep_word_S, pow256_S.
    set (m := length t) in *. set (X := word_le t) in *.
    pose proof (rep1_lt m) as HO. pose proof (pow256_pos m) as HW.
    set (W := 256 ^ N.of_nat m) in *. set (O := rep_word 1 m) in *.
    rewrite lxor_split by (try exact Hb; lia).
    unfold is0 at 1. destruct (N.eqb_spec b 0) as [->|Hb0].
    + (* the lowest zero byte: bit 7 of its byte is set in the result *)
      replace (0 + 256 * X + 256 * W - (1 + 256 * O)) with (255 + 256 * (X + W - O - 1)) by lia.
      rewrite mod_split by lia.
      change (N.lxor 0 255) with 255.
      rewrite land_split by lia. rewrite land_split by (try lia; apply land_small; lia).
      change (N.land (N.land 255 255) 128) with 128.
      cbn [orb negb]. apply N.eqb_neq. lia.
    + (* non-zero byte: no borrow, its own byte contributes nothing *)
      replace (b + 256 * X + 256 * W - (1 + 256 * O)) with ((b - 1) + 256 * (X + W - O)) by lia.
      rewrite mod_split by lia.
      rewrite land_split by (try lia; apply lxor_small; lia).
      rewrite land_split by (try lia; apply land_small; lia).
      rewrite low_byte_clear by lia.
      cbn [orb]. rewrite <- IH.
      set (R := N.land _ (rep_word 128 m)).
      destruct (N.eqb_spec R 0) as [E|E]; [apply N.eqb_eq|apply N.eqb_neq]; lia.
Qed.

Lemma has_zero_byte_hz_gen x : has_zero_byte x = negb (hz_gen 8 x =? 0).
Proof.
  assert (E1 : 256 ^ N.of_nat 8 = two64) by (vm_compute; reflexivity).
  assert (E2 : rep_word 1 8 = magic_left) by (vm_compute; reflexivity).
  assert (E3 : rep_word 255 8 = N.ones 64) by (vm_compute; reflexivity).
  assert (E4 : rep_word 128 8 = magic_right) by (vm_compute; reflexivity).
  unfold has_zero_byte, hz_gen. rewrite E1, E2, E3, E4. reflexivity.
Qed.

(* the Go expression on the uint made of 8 bytes in memory order (little endian) *)
Lemma has_zero_byte_le bs :
  length bs = 8%nat -> bytes_ok bs = true -> has_zero_byte (word_le bs) = existsb is0 bs.
Proof.
  intros Hl Hok. rewrite has_zero_byte_hz_gen, <- Hl, hz_gen_correct by exact Hok.
  apply negb_involutive.
Qed.

Lemma existsb_rev {A} (f : A -> bool) l : existsb f (rev l) = existsb f l.
Proof.
  induction l as [|a t IH]; [reflexivity|].
  cbn [rev existsb]. rewrite existsb_app, IH. cbn [existsb]. rewrite orb_false_r. apply orb_comm.
Qed.

(* a test for a zero byte that is right for the little-endian load is right for the big-endian one *)
Lemma zero_test_be (hz : N -> bool) n :
  (forall bs, length bs = n -> bytes_ok bs = true -> hz (word_le bs) = existsb is0 bs) ->
  forall bs, length bs = n -> bytes_ok bs = true -> hz (word_be bs) = existsb is0 bs.
Proof.
  intros Hle bs Hl Hok. unfold word_be. rewrite Hle.
  - apply existsb_rev.
  - rewrite rev_length. exact Hl.
  - unfold bytes_ok in *. rewrite forallb_forall in *. intros x Hx. apply Hok. apply in_rev. exact Hx.
Qed.

Lemma has_zero_byte_be bs :
  length bs = 8%nat -> bytes_ok bs = true -> has_zero_byte (word_be bs) = existsb is0 bs.
Proof. exact (zero_test_be has_zero_byte 8 has_zero_byte_le bs). Qed.
