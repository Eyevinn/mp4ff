(* C14ScanProofs.v — the word-at-a-time start-code scanner returns exactly the byte-by-byte scan,
   for every byte string (every alignment, every length, start codes straddling word boundaries,
   word/tail hand-over), and never panics.  Proved once for a word of 2k bytes (k probes per word);
   the 64-bit compilation is k = 4, the 32-bit one (C14Scan32Proofs.v) k = 2. *)
From V.lib Require Import Base.
From V.c14 Require Import C14Spec C14Model C14WordProofs.
Local Open Scope Z_scope.

Lemma Zlen_nonneg {A} (l : list A) : 0 <= Zlen l.
Proof. unfold Zlen. lia. Qed.

Lemma getb_ok l i : 0 <= i -> i < Zlen l -> getb l i = Ok (zget l i).
Proof.
  intros H0 H1. unfold getb, zget.
  replace ((0 <=? i) && (i <? Zlen l)) with true by lia.
  rewrite (nth_error_nth' l 2%N); [reflexivity|]. unfold Zlen in H1. lia.
Qed.

Lemma is1_not0 b : is1 b = true -> is0 b = false.
Proof. unfold is1, is0. intros H. apply N.eqb_eq in H. subst b. reflexivity. Qed.

Definition pushes (st : scst) (xs : list (Z * Z)) : scst := fold_left push xs st.

Lemma pushes_app st a b : pushes st (a ++ b) = pushes (pushes st a) b.
Proof. unfold pushes. apply fold_left_app. Qed.

Lemma pushes_nil st : pushes st [] = st.
Proof. reflexivity. Qed.

Lemma pushes_spec xs : forall acc m,
  pushes (acc, m) xs = (rev xs ++ acc, fold_left (fun m e => Z.min m (fst e)) xs m).
Proof.
  induction xs as [|e t IH]; intros acc m.
  - reflexivity.
  - cbn [pushes fold_left rev]. unfold pushes in IH. unfold push at 2. cbn [fst snd].
    rewrite IH. rewrite <- app_assoc. cbn [app]. f_equal. f_equal.
    destruct (Z.ltb_spec (fst e) m); lia.
Qed.

Lemma zrange_app s a b : zrange s (a + b) = zrange s a ++ zrange (s + Z.of_nat a) b.
Proof.
  revert s. induction a as [|a IH]; intros s.
  - cbn [zrange app plus]. f_equal. lia.
  - cbn [zrange app plus]. f_equal. rewrite IH. f_equal. f_equal. lia.
Qed.

Lemma In_zrange p : forall n s, In p (zrange s n) -> s <= p < s + Z.of_nat n.
Proof.
  induction n as [|n IH]; intros s H; [destruct H|].
  cbn [zrange] in H. destruct H as [H|H]; [lia|]. apply IH in H. lia.
Qed.

Lemma flat_map_nil {A B} (f : A -> list B) l : (forall x, In x l -> f x = []) -> flat_map f l = [].
Proof.
  induction l as [|a t IH]; intros H; [reflexivity|].
  cbn [flat_map]. rewrite (H a (or_introl eq_refl)), IH; [reflexivity|].
  intros x Hx. apply H. right. exact Hx.
Qed.

Lemma scs_beyond l s n : Zlen l - 3 <= s -> flat_map (scs l) (zrange s n) = [].
Proof.
  intros H. apply flat_map_nil. intros p Hp. apply In_zrange in Hp.
  unfold scs, is_sc. replace (p + 3 <? Zlen l) with false by lia.
  rewrite andb_false_r. reflexivity.
Qed.

(* the positions 0 .. |l|-4 are all that can hold a start code *)
Lemma naive_scan_upto l n : Zlen l - 3 <= Z.of_nat n -> (n <= length l)%nat ->
  flat_map (scs l) (zrange 0 n) = naive_scan l.
Proof.
  intros Hn Hle. unfold naive_scan. replace (length l) with (n + (length l - n))%nat by lia.
  rewrite zrange_app, flat_map_app, (scs_beyond l (0 + Z.of_nat n)), app_nil_r by lia. reflexivity.
Qed.

(* A start code at j-1 needs l[j+1] = 1, one at j needs l[j+1] = 0: at most one of the two is pushed. *)
Lemma probe_spec l j st : 1 <= j -> j + 3 < Zlen l ->
  exists r, probe l j = Ok r /\
            match r with Some e => push st e | None => st end = pushes st (scs l (j - 1) ++ scs l j).
Proof.
  intros H1 H2. unfold probe.
  rewrite (getb_ok l j), (getb_ok l (j - 1)), (getb_ok l (j + 1)), (getb_ok l (j + 2)) by lia.
  cbn [rbind].
  unfold scs, is_sc, sc_len.
  replace (0 <=? j - 1) with true by lia. replace (j - 1 + 3 <? Zlen l) with true by lia.
  replace (0 <=? j) with true by lia. replace (j + 3 <? Zlen l) with true by lia.
  replace (j - 1 + 1) with j by lia. replace (j - 1 + 2) with (j + 1) by lia.
  replace (j - 1 - 1) with (j - 2) by lia. replace (j - 1 + 3) with (j + 2) by lia.
  replace (1 <=? j) with true by lia.
  replace (1 <=? j - 1) with (0 <=? j - 2) by lia.
  cbn [andb].
  destruct (is0 (zget l j)); [|rewrite !andb_false_r; eexists; split; reflexivity].
  destruct (is1 (zget l (j + 1))) eqn:Ep1.
  - (* 00 00 01 can only begin at j-1 *)
    rewrite (is1_not0 _ Ep1).
    destruct (is0 (zget l (j - 1))); cbn [rbind andb app]; [|eexists; split; reflexivity].
    destruct (Z.leb_spec 0 (j - 2)); [rewrite (getb_ok l (j - 2)) by lia|];
      cbn [rbind andb]; eexists; split; reflexivity.
  - (* ... or at j *)
    rewrite andb_false_r.
    destruct (is0 (zget l (j - 1))), (is0 (zget l (j + 1))), (is1 (zget l (j + 2)));
      cbn [rbind andb app]; eexists; split; reflexivity.
Qed.

Lemma tail_spec fuel : forall l i st,
  0 <= i -> (Z.to_nat (Zlen l - 3 - i) < fuel)%nat ->
  tail_loop fuel l i st = Ok (pushes st (flat_map (scs l) (zrange i (Z.to_nat (Zlen l - 3 - i))))).
Proof.
  induction fuel as [|f IH]; intros l i st H0 Hf; [lia|].
  cbn [tail_loop]. destruct (Z.ltb_spec i (Zlen l - 3)) as [Hlt|Hge].
  - replace (Z.to_nat (Zlen l - 3 - i)) with (S (Z.to_nat (Zlen l - 3 - (i + 1)))) by lia.
    cbn [zrange flat_map]. rewrite pushes_app.
    rewrite (getb_ok l i), (getb_ok l (i + 1)), (getb_ok l (i + 2)) by lia. cbn [rbind].
    unfold scs at 1, is_sc, sc_len.
    replace (0 <=? i) with true by lia. replace (i + 3 <? Zlen l) with true by lia.
    destruct (is0 (zget l i)), (is0 (zget l (i + 1))), (is1 (zget l (i + 2)));
      cbn [rbind andb]; try (apply IH; lia).
    replace (0 <=? i - 1) with (1 <=? i) by lia.
    destruct (Z.leb_spec 1 i); [rewrite (getb_ok l (i - 1)) by lia|]; cbn [rbind andb]; apply IH; lia.
  - replace (Z.to_nat (Zlen l - 3 - i)) with 0%nat by lia. reflexivity.
Qed.

Lemma nth_skipn {A} (d : A) i : forall l k, nth k (skipn i l) d = nth (i + k) l d.
Proof.
  induction i as [|i IH]; intros l k; [reflexivity|].
  destruct l as [|a t]; [destruct k; reflexivity|]. cbn [skipn plus nth]. apply IH.
Qed.

Lemma nth_firstn_lt {A} (d : A) n : forall l k, (k < n)%nat -> nth k (firstn n l) d = nth k l d.
Proof.
  induction n as [|n IH]; intros l k Hk; [lia|].
  destruct l as [|a t]; [reflexivity|]. destruct k as [|k]; [reflexivity|].
  cbn [firstn nth]. apply IH. lia.
Qed.

Lemma bytes_ok_firstn n l : bytes_ok l = true -> bytes_ok (firstn n l) = true.
Proof.
  unfold bytes_ok. rewrite !forallb_forall. intros H x Hx. apply H.
  rewrite <- (firstn_skipn n l). apply in_or_app. left. exact Hx.
Qed.

Lemma bytes_ok_skipn n l : bytes_ok l = true -> bytes_ok (skipn n l) = true.
Proof.
  unfold bytes_ok. rewrite !forallb_forall. intros H x Hx. apply H.
  rewrite <- (firstn_skipn n l). apply in_or_app. right. exact Hx.
Qed.

Lemma no_zero_no_sc l i n : 0 <= i -> i + Z.of_nat n <= Zlen l ->
  existsb is0 (firstn n (skipn (Z.to_nat i) l)) = false -> flat_map (scs l) (zrange i n) = [].
Proof.
  intros H0 H1 Hz. apply flat_map_nil. intros p Hp. apply In_zrange in Hp.
  apply (existsb_nth _ _ (n := Z.to_nat (p - i)) 2%N) in Hz.
  - rewrite nth_firstn_lt, nth_skipn in Hz by lia.
    unfold scs, is_sc, zget. replace (Z.to_nat p) with (Z.to_nat i + Z.to_nat (p - i))%nat by lia.
    rewrite Hz, !andb_false_r. reflexivity.
  - rewrite firstn_length, skipn_length. unfold Zlen in H1. lia.
Qed.

Lemma next_multiple w i lim : 0 < w -> i mod w = 0 -> lim mod w = 0 -> i < lim -> i + w <= lim.
Proof.
  intros Hw Hi Hl Hlt. apply Z.mod_divide in Hi, Hl; try lia.
  destruct Hi as [a ->], Hl as [b ->]. apply Z.mul_lt_mono_pos_r in Hlt; [|exact Hw].
  replace (a * w + w) with ((a + 1) * w) by ring. apply Z.mul_le_mono_nonneg_r; lia.
Qed.

Definition width (k : nat) : Z := Z.of_nat (2 * k).

Section WordScanner.
  (* k = probes per word, hz = the zero-byte test on a word of that width; the three definitions are
     the text of inner_loop / word_loop / get_start_code_positions with 8 replaced by the width *)
  Variables (k : nat) (hz : N -> bool).

  Fixpoint inner_w (fuel : nat) (l : list N) (i j : Z) (st : scst) : res scst :=
    match fuel with
    | O => OutOfFuel
    | S f =>
        if j <? i + width k then
          do r <- probe l j;
          inner_w f l i (j + 2) (match r with Some e => push st e | None => st end)
        else Ok st
    end.

  Fixpoint word_w (fuel : nat) (l : list N) (lim i : Z) (st : scst) : res (Z * scst) :=
    match fuel with
    | O => OutOfFuel
    | S f =>
        if i <? lim then
          do w <- (do _ <- getb l i; do bs <- slice l i (i + width k); Ok (word_le bs));
          do st' <- (if hz w then inner_w (2 * k) l i (i + 1) st else Ok st);
          word_w f l lim (i + width k) st'
        else Ok (i, st)
    end.

  Definition scan_w (l : list N) : res (list (Z * Z) * Z) :=
    let streamLen := Zlen l in
    let lim := streamLen - Z.rem streamLen (width k) - width k in
    do r <- word_w (S (length l)) l lim 0 ([], 4);
    do st <- tail_loop (S (length l)) l (fst r) (snd r);
    Ok (rev (fst st), snd st).

  (* the last probe of a word looks two bytes into the next one: a word of 2 bytes would not do *)
  Hypothesis k_ge2 : (2 <= k)%nat.
  Hypothesis hz_spec : forall bs,
    length bs = (2 * k)%nat -> bytes_ok bs = true -> hz (word_le bs) = existsb is0 bs.

  (* n probes at j, j+2, ... cover the 2n positions from j-1 on *)
  Lemma inner_w_spec l i : forall n fuel j st,
    (n < fuel)%nat -> 1 <= j -> j + 2 * Z.of_nat n = i + width k + 1 -> i + width k + 2 < Zlen l ->
    inner_w fuel l i j st = Ok (pushes st (flat_map (scs l) (zrange (j - 1) (2 * n)))).
  Proof.
    induction n as [|n IH]; intros fuel j st Hf H1 Hj Hl; (destruct fuel as [|f]; [lia|]); cbn [inner_w].
    - replace (j <? i + width k) with false by lia. reflexivity.
    - replace (j <? i + width k) with true by lia.
      destruct (probe_spec l j st) as [r [-> Hr]]; [lia|lia|]. cbn [rbind].
      rewrite Hr, IH, <- pushes_app by lia.
      replace (2 * S n)%nat with (S (S (2 * n))) by lia. cbn [zrange flat_map].
      replace (j - 1 + 1) with j by lia. replace (j + 1) with (j + 2 - 1) by lia.
      rewrite app_assoc. reflexivity.
  Qed.

  Lemma word_w_spec fuel : forall l lim i st,
    bytes_ok l = true -> 0 <= i -> i mod width k = 0 -> lim mod width k = 0 -> lim <= Zlen l - width k ->
    (Z.to_nat (lim - i) < fuel)%nat ->
    word_w fuel l lim i st =
      Ok (Z.max i lim, pushes st (flat_map (scs l) (zrange i (Z.to_nat (Z.max i lim - i))))).
  Proof.
    assert (Hw : width k = Z.of_nat (2 * k) /\ 4 <= width k) by (unfold width; lia).
    induction fuel as [|f IH]; intros l lim i st Hok H0 Hi Hlim Hle Hf; [lia|].
    cbn [word_w]. destruct (Z.ltb_spec i lim) as [Hlt|Hge].
    - assert (Hstep : i + width k <= lim) by (apply next_multiple; assumption || lia).
      assert (Hi' : (i + width k) mod width k = 0)
        by (rewrite <- Z.add_mod_idemp_r, Z.mod_same, Z.add_0_r by lia; exact Hi).
      specialize (IH l lim (i + width k)). clear Hi.
      rewrite getb_ok by lia. unfold slice.
      replace ((0 <=? i) && (i <=? i + width k) && (i + width k <=? Zlen l)) with true by lia.
      cbn [rbind]. replace (Z.to_nat (i + width k - i)) with (2 * k)%nat by lia.
      set (bs := firstn (2 * k) (skipn (Z.to_nat i) l)).
      assert (Hst : (if hz (word_le bs) then inner_w (2 * k) l i (i + 1) st else Ok st)
                    = Ok (pushes st (flat_map (scs l) (zrange i (2 * k))))).
      { destruct (hz (word_le bs)) eqn:Hz.
        - rewrite (inner_w_spec l i k) by lia. do 4 f_equal. lia.
        - rewrite hz_spec in Hz.
          + rewrite no_zero_no_sc by (exact Hz || lia). reflexivity.
          + unfold bs. rewrite firstn_length, skipn_length. unfold Zlen in *. lia.
          + apply bytes_ok_firstn, bytes_ok_skipn, Hok. }
      rewrite Hst. cbn [rbind].
      rewrite IH by (assumption || lia).
      f_equal. f_equal; [lia|].
      rewrite <- pushes_app, <- flat_map_app. f_equal. f_equal.
      replace (Z.to_nat (Z.max i lim - i))
        with (2 * k + Z.to_nat (Z.max (i + width k) lim - (i + width k)))%nat by lia.
      rewrite zrange_app. reflexivity.
    - f_equal. f_equal; [lia|]. replace (Z.to_nat (Z.max i lim - i)) with 0%nat by lia. reflexivity.
  Qed.

  Theorem scan_w_eq_naive l : bytes_ok l = true -> scan_w l = Ok (naive_scan l, min_sc_len (naive_scan l)).
  Proof.
    intros Hok. unfold scan_w.
    assert (Hw : 4 <= width k) by (unfold width; lia).
    pose proof (Zlen_nonneg l) as Hn.
    rewrite Z.rem_mod_nonneg by lia.
    pose proof (Z.mod_pos_bound (Zlen l) (width k) ltac:(lia)) as Hm.
    set (lim := Zlen l - Zlen l mod width k - width k).
    assert (Hlim : lim mod width k = 0).
    { replace lim with ((Zlen l / width k - 1) * width k) by (unfold lim; rewrite Z.mod_eq by lia; ring).
      apply Z.mod_mul. lia. }
    assert (Hle : lim <= Zlen l - width k) by (unfold lim; lia).
    clearbody lim. clear Hm.
    rewrite word_w_spec by (assumption || reflexivity || (unfold Zlen in *; lia)).
    cbn [rbind fst snd].
    set (W := Z.max 0 lim).
    rewrite tail_spec by (unfold W, Zlen in *; lia).
    cbn [rbind].
    rewrite <- pushes_app, <- flat_map_app.
    replace (W - 0) with W by lia.
    replace (zrange W) with (zrange (0 + Z.of_nat (Z.to_nat W))) by (f_equal; lia).
    rewrite <- zrange_app, naive_scan_upto by (unfold W, Zlen in *; lia).
    rewrite pushes_spec. cbn [fst snd]. rewrite app_nil_r, rev_involutive.
    reflexivity.
  Qed.
End WordScanner.

Lemma scanner_eq_naive l : bytes_ok l = true ->
  get_start_code_positions l = Ok (naive_scan l, min_sc_len (naive_scan l)).
Proof. exact (scan_w_eq_naive 4 has_zero_byte ltac:(lia) has_zero_byte_le l). Qed.

Lemma Zlen_app {A} (a b : list A) : Zlen (a ++ b) = Zlen a + Zlen b.
Proof. unfold Zlen. rewrite app_length. lia. Qed.

Lemma Zlen_cons {A} (x : A) l : Zlen (x :: l) = 1 + Zlen l.
Proof. unfold Zlen. cbn [length]. lia. Qed.

Lemma zget_app_k l0 l k : 0 <= k -> zget (l0 ++ l) (Zlen l0 + k) = zget l k.
Proof.
  intros Hk. unfold zget, Zlen. rewrite app_nth2 by lia. f_equal. lia.
Qed.

Lemma zget_app_0 l0 b t : zget (l0 ++ b :: t) (Zlen l0) = b.
Proof. replace (Zlen l0) with (Zlen l0 + 0) by lia. rewrite zget_app_k by lia. reflexivity. Qed.

Definition prev0 (l0 : list N) : bool := match rev l0 with [] => false | x :: _ => is0 x end.

Lemma prev0_spec l0 l : (1 <=? Zlen l0) && is0 (zget (l0 ++ l) (Zlen l0 - 1)) = prev0 l0.
Proof.
  unfold prev0. destruct (rev l0) as [|x r] eqn:E.
  - apply (f_equal (@rev N)) in E. rewrite rev_involutive in E. subst l0. reflexivity.
  - apply (f_equal (@rev N)) in E. rewrite rev_involutive in E. cbn [rev] in E. subst l0.
    rewrite Zlen_app. replace (Zlen [x]) with 1 by reflexivity.
    pose proof (Zlen_nonneg (rev r)).
    replace (1 <=? Zlen (rev r) + 1) with true by lia. cbn [andb].
    replace (Zlen (rev r) + 1 - 1) with (Zlen (rev r)) by lia.
    rewrite <- app_assoc. cbn [app]. rewrite zget_app_0. reflexivity.
Qed.

Lemma nscan_gen : forall l l0,
  nscan (prev0 l0) (Zlen l0) l = flat_map (scs (l0 ++ l)) (zrange (Zlen l0) (length l)).
Proof.
  induction l as [|b t IH]; intros l0; [reflexivity|].
  cbn [nscan length zrange flat_map]. f_equal.
  - unfold scs, is_sc, sc_len. rewrite prev0_spec.
    pose proof (Zlen_nonneg l0) as Hn. replace (0 <=? Zlen l0) with true by lia. cbn [andb].
    rewrite Zlen_app. rewrite zget_app_0.
    destruct t as [|c [|d [|e t']]].
    + replace (Zlen l0 + 3 <? Zlen l0 + Zlen [b]) with false by (unfold Zlen; cbn [length]; lia).
      reflexivity.
    + replace (Zlen l0 + 3 <? Zlen l0 + Zlen [b; c]) with false by (unfold Zlen; cbn [length]; lia).
      reflexivity.
    + replace (Zlen l0 + 3 <? Zlen l0 + Zlen [b; c; d]) with false by (unfold Zlen; cbn [length]; lia).
      reflexivity.
    + replace (Zlen l0 + 3 <? Zlen l0 + Zlen (b :: c :: d :: e :: t')) with true
        by (unfold Zlen; cbn [length]; lia).
      rewrite !zget_app_k by lia. cbn [andb]. unfold zget. cbn [Z.to_nat Pos.to_nat Pos.iter_op nth plus].
      reflexivity.
  - specialize (IH (l0 ++ [b])). rewrite <- app_assoc in IH. cbn [app] in IH.
    rewrite Zlen_app in IH. replace (Zlen [b]) with 1 in IH by reflexivity.
    rewrite <- IH. f_equal. unfold prev0. rewrite rev_app_distr. reflexivity.
Qed.

Lemma nscan_naive l : nscan false 0 l = naive_scan l.
Proof. exact (nscan_gen l []). Qed.
