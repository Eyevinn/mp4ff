(* C14AvcProofs.v — avc.GetParameterSetsFromByteStream transcribed to its end (C14AvcModel.v: totSize, psData
   repacking) returns, on EVERY input, the sets the shorter transcription of C14Model.v returns. *)
From V.lib Require Import Base.
From V.c14 Require Import C14Spec C14Model C14HevcModel C14AvcModel.
From V.c14 Require Import C14StreamProofs C14HevcPackProofs C14HevcProofs.
Local Open Scope Z_scope.

(* the SPS and PPS lists as the shared transcription holds them: beside an empty VPS list *)
Definition emb (a : avc_ps) : ps3 := ([], fst a, snd a).

Definition view (r : (Z * avc_ps * Z) + (avc_ps * Z)) : ((Z * ps3) + ps3) * Z :=
  match r with
  | inl (c, a, t) => (inl (c, emb a), t)
  | inr (a, t) => (inr (emb a), t)
  end.
Definition sets_of (r : (Z * ps3) + ps3) : ps3 := match r with inl (_, a) => a | inr a => a end.

(* the scanning loop: the sets are those of the shared loop, and totSize grows by exactly the lengths of the
   sets appended *)
Lemma avc_gpsb_loop_eq d tot0 : forall fuel n i cur a,
  (do r <- avc_gpsb_loop fuel d n i cur a (tot0 + sum3 (emb a)); Ok (view r))
  = (do r <- bs_loop (gpsb_body avc_type avc_ps_class 6 d) fuel d n i (cur, emb a);
     Ok (r, tot0 + sum3 (sets_of r))).
Proof.
  induction fuel as [|f IH]; intros n i cur a; [reflexivity|].
  cbn [avc_gpsb_loop bs_loop]. destruct (i <? n - 3); [|reflexivity].
  change (hevc_sc_at d i) with (sc_at d i). rewrite !rbind_assoc. apply rbind_ext; intros m.
  destruct m; [|apply IH].
  (* behind the previous unit both sides look at the next header in the same way *)
  assert (Hnext : forall a' : avc_ps,
    (do r <- (do h0 <- getb d (i + 3);
              if (avc_GetNaluType h0 <? 6)%N then Ok (inr (a', tot0 + sum3 (emb a')))
              else avc_gpsb_loop f d n (i + 1) (i + 3) a' (tot0 + sum3 (emb a')));
     Ok (view r))
    = (do r <- (do r0 <- (do h0 <- getb d (i + 3);
                          if (avc_type h0 <? 6)%N then Ok (inr (emb a')) else Ok (inl (i + 3, emb a')));
                match r0 with
                | inl st' => bs_loop (gpsb_body avc_type avc_ps_class 6 d) f d n (i + 1) st'
                | inr x => Ok (inr x)
                end);
       Ok (r, tot0 + sum3 (sets_of r)))).
  { intros a'. rewrite !rbind_assoc. apply rbind_ext; intros h0. change (avc_GetNaluType h0) with (avc_type h0).
    destruct (avc_type h0 <? 6)%N; [reflexivity|apply IH]. }
  destruct a as [sp p]. unfold gpsb_body, avc_ps_class, avc_is_video.
  destruct (cur >? 0); [|apply (Hnext (sp, p))].
  change (hevc_nalu_end d cur i) with (trim_end d cur i).
  destruct (trim_end d cur i) as [e| | |]; cbn [rbind]; try reflexivity.
  destruct (getb d cur) as [h| | |]; cbn [rbind]; try reflexivity.
  change (avc_GetNaluType h) with (avc_type h).
  destruct (N.eqb (avc_type h) 7); [|destruct (N.eqb (avc_type h) 8)].
  3: destruct (avc_type h <=? 5)%N; apply (Hnext (sp, p)).
  all: cbn [N.leb N.compare Pos.compare Pos.compare_cont];
    destruct (slice d cur e) as [x| | |] eqn:Hsl; cbn [rbind fst snd]; try reflexivity.
  - rewrite (tot_size_step _ _ 1 _ _ _ _ Hsl). apply (Hnext (x :: sp, p)).
  - rewrite (tot_size_step _ _ 2 _ _ _ _ Hsl). apply (Hnext (sp, x :: p)).
Qed.

Lemma avc_gpsb_finish_eq d tot0 r r' : view r = (r', tot0 + sum3 (sets_of r')) ->
  (do a <- avc_gpsb_finish d r; Ok (emb (fst a), snd a))
  = (do a' <- gpsb_finish avc_type avc_ps_class d r'; Ok (a', tot0 + sum3 a')).
Proof.
  destruct r as [[[cur [sp p]] tot]|[[sp p] tot]]; cbn [view]; intros E; injection E as <- ->;
    cbn [avc_gpsb_finish gpsb_finish sets_of rbind fst snd].
  2:{ rewrite sum3_ps_rev. reflexivity. }
  destruct (cur >? 0); cbn [rbind fst snd]; [|rewrite sum3_ps_rev; reflexivity].
  destruct (getb d cur) as [h| | |]; cbn [rbind]; try reflexivity.
  change (avc_GetNaluType h) with (avc_type h). unfold avc_ps_class, avc_is_video.
  destruct (N.eqb (avc_type h) 7); [|destruct (N.eqb (avc_type h) 8)].
  3: destruct (avc_type h <=? 5)%N; cbn [N.leb N.compare Pos.compare Pos.compare_cont rbind fst snd];
       rewrite sum3_ps_rev; reflexivity.
  all: cbn [N.leb N.compare Pos.compare Pos.compare_cont];
    destruct (slice d cur (Zlen d)) as [x| | |] eqn:Hsl; cbn [rbind fst snd]; try reflexivity; rewrite sum3_ps_rev.
  - rewrite <- (tot_size_step _ _ 1 _ _ _ _ Hsl). reflexivity.
  - rewrite <- (tot_size_step _ _ 2 _ _ _ _ Hsl). reflexivity.
Qed.

(* the repacking is the HEVC one without VPS sets *)
Lemma avc_repack_exact a : avc_repack a (sum3 (emb a)) = Ok a.
Proof.
  destruct a as [s p]. pose proof (repack_exact [] s p) as H. unfold emb in *. cbn [fst snd] in *.
  unfold hevc_repack in H. unfold avc_repack. destruct (sum3 ([], s, p) <? 0); [discriminate|].
  cbn [hevc_repack_loop rbind fst snd rev hevc_views] in H.
  destruct (hevc_repack_loop _ 0 s []) as [r1| | |]; cbn [rbind] in *; try discriminate.
  destruct (hevc_repack_loop _ _ p []) as [r2| | |]; cbn [rbind] in *; try discriminate.
  destruct (hevc_views _ (snd r1)) as [s'| | |]; cbn [rbind] in *; try discriminate.
  destruct (hevc_views _ (snd r2)) as [p'| | |]; cbn [rbind] in *; try discriminate.
  injection H as -> ->. reflexivity.
Qed.

Lemma avc_gpsb_full s :
  avc_get_parameter_sets_from_byte_stream s
  = (do a <- avc_GetParameterSetsFromByteStream s; Ok ([], fst a, snd a)).
Proof.
  unfold avc_get_parameter_sets_from_byte_stream, get_parameter_sets_from_byte_stream, avc_GetParameterSetsFromByteStream.
  pose proof (avc_gpsb_loop_eq s 0 (S (length s)) (Zlen s) 0 (-1) ([], [])) as HL.
  change (0 + sum3 (emb ([], []))) with 0 in HL. change (emb ([], [])) with (([], [], []) : ps3) in HL.
  destruct (avc_gpsb_loop _ _ _ _ _ _ _) as [r| | |], (bs_loop _ _ _ _ _ _) as [r'| | |];
    cbn [rbind] in *; try discriminate HL; try reflexivity.
  injection HL as HL. pose proof (avc_gpsb_finish_eq s 0 r r' HL) as HF.
  destruct (avc_gpsb_finish s r) as [[a t]| | |], (gpsb_finish _ _ s r') as [a'| | |];
    cbn [rbind fst snd] in *; try discriminate HF; try reflexivity.
  injection HF as <- ->. rewrite avc_repack_exact. reflexivity.
Qed.

(* on an Annex B stream of well-formed units: the SPS and PPS units before the first video unit *)
Lemma avc_gpsb_full_stream us : wf_units us = true ->
  avc_GetParameterSetsFromByteStream (stream us)
  = Ok (of_type avc_type 7 (before_video avc_type avc_is_video (map snd us)),
        of_type avc_type 8 (before_video avc_type avc_is_video (map snd us))).
Proof.
  intros Hw. pose proof (gpsb_stream_avc us Hw) as H. rewrite avc_gpsb_full in H.
  destruct (avc_GetParameterSetsFromByteStream (stream us)) as [[sp p]| | |]; cbn [rbind fst snd] in H; try discriminate.
  injection H as <- <-. reflexivity.
Qed.
