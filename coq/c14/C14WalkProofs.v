(* C14WalkProofs.v — the length-field walkers of avc and hevc on `sample ns` return the obvious list
   functions of the unit list ns. *)
From V.lib Require Import Base.
From V.c14 Require Import C14Spec C14Model C14ScanProofs C14ConvProofs.
Local Open Scope Z_scope.

Lemma getb_mid (P R : list N) x : getb (P ++ x :: R) (Zlen P) = Ok x.
Proof.
  pose proof (Zlen_nonneg P). pose proof (Zlen_nonneg R).
  rewrite getb_ok; [rewrite zget_app_0; reflexivity|lia|]. rewrite Zlen_app, Zlen_cons. lia.
Qed.

(* what every walker sees at the length field of unit n, behind the prefix P of the sample s; the last two
   say where the next unit starts *)
Lemma walk_facts (P : list N) n t s :
  nonempty n && fits32 n = true -> s = P ++ sample (n :: t) ->
  (Zlen P <? Zlen s - 4) = true /\
  slice s (Zlen P) (Zlen P + 4) = Ok (be32 (lenN n)) /\
  be32_dec (be32 (lenN n)) = Zlen n /\
  getb s (Zlen P + 4) = Ok (hd0 n) /\
  (Zlen n >? Zlen s - (Zlen P + 4)) = false /\
  slice s (Zlen P + 4) (Zlen P + 4 + Zlen n) = Ok n /\
  Zlen P + 4 + Zlen n = Zlen (P ++ be32 (lenN n) ++ n) /\
  s = (P ++ be32 (lenN n) ++ n) ++ sample t.
Proof.
  intros H ->. apply andb_prop in H. destruct H as [Hne Hfit]. cbn [sample].
  assert (E : Zlen (P ++ be32 (lenN n)) = Zlen P + 4) by (rewrite Zlen_app; reflexivity).
  assert (EL : Zlen (P ++ be32 (lenN n) ++ n ++ sample t) = Zlen P + 4 + Zlen n + Zlen (sample t))
    by (rewrite !Zlen_app, Zlen_be32; lia).
  pose proof (be32_dec_len n Hfit) as Hdec. pose proof (Zlen_nonneg (sample t)) as Ht.
  destruct n as [|x n']; [discriminate|]. pose proof (Zlen_nonneg n') as Hn'. pose proof (Zlen_cons x n') as Hn.
  split; [lia|]. split; [rewrite <- (Zlen_be32 (lenN (x :: n'))); apply slice_mid|].
  split; [exact Hdec|].
  split; [rewrite app_assoc, <- E; apply getb_mid|]. split; [lia|].
  split; [rewrite app_assoc, <- E; apply slice_mid|].
  split; [rewrite !Zlen_app, Zlen_be32; lia|rewrite <- !app_assoc; reflexivity].
Qed.

Lemma walk_end (P s : list N) : s = P ++ sample [] -> (Zlen P <? Zlen s - 4) = false.
Proof. intros ->. cbn [sample]. rewrite app_nil_r. lia. Qed.

Lemma sample_len_ge4 ns : ns <> [] -> walkable ns = true -> (Zlen (sample ns) <? 4) = false.
Proof.
  destruct ns as [|n t]; [congruence|]. intros _ Hw. cbn [walkable forallb] in Hw. apply andb_prop in Hw.
  destruct (walk_facts [] n t _ (proj1 Hw) eq_refl) as [F1 _]. cbn [app] in F1. change (Zlen (@nil N)) with 0 in F1. lia.
Qed.

(* avc.GetNalusFromSample *)
Lemma gnfs_spec : forall ns fuel P acc s,
  (length ns < fuel)%nat -> walkable ns = true -> s = P ++ sample ns ->
  gnfs_loop fuel s (Zlen s) (Zlen P) acc = Ok (rev acc ++ ns).
Proof.
  induction ns as [|n t IH]; intros fuel P acc s Hf Hw Hs; (destruct fuel as [|f]; [cbn [length] in Hf; lia|]);
    cbn [gnfs_loop].
  - rewrite (walk_end P s Hs), app_nil_r. reflexivity.
  - cbn [walkable forallb length] in Hw, Hf. apply andb_prop in Hw. destruct Hw as [Hn Hw].
    destruct (walk_facts P n t s Hn Hs) as (F1 & F2 & F3 & _ & F5 & F6 & F7 & F8).
    rewrite F1, F2. cbn [rbind]. rewrite F3, F5, F6. cbn [rbind].
    rewrite F7, (IH f _ (n :: acc) s) by (assumption || lia). cbn [rev]. rewrite <- app_assoc. reflexivity.
Qed.

Lemma get_nalus_spec ns : ns <> [] -> walkable ns = true -> get_nalus_from_sample (sample ns) = Ok ns.
Proof.
  intros Hne Hw. unfold get_nalus_from_sample. rewrite sample_len_ge4 by assumption.
  pose proof (length_sample_ge ns) as Hl.
  exact (gnfs_spec ns (S (length (sample ns))) [] [] _ ltac:(lia) Hw eq_refl).
Qed.

(* FindNaluTypes / FindNaluTypesUpToFirstVideoNALU *)
Definition walk_types (ty : N -> N) (stop : option (N -> bool)) (ns : list (list N)) : list N :=
  match stop with
  | None => map (utype ty) ns
  | Some isv => types_upto ty isv ns
  end.

Lemma walk_spec ty stop : forall ns fuel P acc s,
  (length ns < fuel)%nat -> walkable ns = true -> s = P ++ sample ns ->
  walk_loop ty stop fuel s (Zlen s) (Zlen P) acc = Ok (rev acc ++ walk_types ty stop ns).
Proof.
  induction ns as [|n t IH]; intros fuel P acc s Hf Hw Hs; (destruct fuel as [|f]; [cbn [length] in Hf; lia|]);
    cbn [walk_loop].
  - rewrite (walk_end P s Hs). destruct stop; cbn [walk_types map types_upto]; rewrite app_nil_r; reflexivity.
  - cbn [walkable forallb length] in Hw, Hf. apply andb_prop in Hw. destruct Hw as [Hn Hw].
    destruct (walk_facts P n t s Hn Hs) as (F1 & F2 & F3 & F4 & F5 & _ & F7 & F8).
    rewrite F1, F2. cbn [rbind]. rewrite F3, F4. cbn [rbind]. rewrite F5, F7. fold (utype ty n).
    assert (Hgo : walk_loop ty stop f s (Zlen s) (Zlen (P ++ be32 (lenN n) ++ n)) (utype ty n :: acc)
                  = Ok (rev acc ++ utype ty n :: walk_types ty stop t)).
    { rewrite (IH f _ _ s) by (assumption || lia). cbn [rev]. rewrite <- app_assoc. reflexivity. }
    destruct stop as [isv|]; cbn [walk_types types_upto map]; [|exact Hgo].
    destruct (isv (utype ty n)); [reflexivity|exact Hgo].
Qed.

Lemma find_types_gen ty stop ns : walkable ns = true ->
  (if Zlen (sample ns) <? 4 then Ok [] else walk_loop ty stop (S (length (sample ns))) (sample ns) (Zlen (sample ns)) 0 [])
  = Ok (walk_types ty stop ns).
Proof.
  intros Hw. destruct ns as [|n t]; [destruct stop; reflexivity|].
  rewrite sample_len_ge4 by (assumption || discriminate).
  pose proof (length_sample_ge (n :: t)) as Hl.
  exact (walk_spec ty stop (n :: t) (S (length (sample (n :: t)))) [] [] _ ltac:(lia) Hw eq_refl).
Qed.

(* ContainsNaluType *)
Lemma contains_spec ty want : forall ns fuel P s,
  (length ns < fuel)%nat -> walkable ns = true -> s = P ++ sample ns ->
  contains_loop ty want fuel s (Zlen s) (Zlen P) = Ok (has_type ty want ns).
Proof.
  induction ns as [|n t IH]; intros fuel P s Hf Hw Hs; (destruct fuel as [|f]; [cbn [length] in Hf; lia|]);
    cbn [contains_loop].
  - rewrite (walk_end P s Hs). reflexivity.
  - cbn [walkable forallb length] in Hw, Hf. apply andb_prop in Hw. destruct Hw as [Hn Hw].
    destruct (walk_facts P n t s Hn Hs) as (F1 & F2 & F3 & F4 & F5 & _ & F7 & F8).
    rewrite F1, F2. cbn [rbind]. rewrite F3, F4. cbn [rbind]. rewrite F5, F7.
    fold (utype ty n). cbn [has_type existsb].
    destruct (N.eqb (utype ty n) want); [reflexivity|]. apply IH; assumption || lia.
Qed.

Lemma contains_top ty want ns : walkable ns = true ->
  contains_loop ty want (S (length (sample ns))) (sample ns) (Zlen (sample ns)) 0 = Ok (has_type ty want ns).
Proof.
  intros Hw. pose proof (length_sample_ge ns) as Hl.
  exact (contains_spec ty want ns (S (length (sample ns))) [] _ ltac:(lia) Hw eq_refl).
Qed.

Lemma hevc_contains_top want ns : walkable ns = true ->
  hevc_contains_nalu_type (sample ns) want = Ok (has_type hevc_type want ns).
Proof.
  intros Hw. unfold hevc_contains_nalu_type. destruct ns as [|n t]; [reflexivity|].
  rewrite sample_len_ge4 by (assumption || discriminate). apply contains_top. exact Hw.
Qed.

(* GetParameterSets *)
Fixpoint gps_fold (ty cls : N -> N) (ns : list (list N)) (acc : ps3) : ps3 :=
  match ns with
  | [] => ps_rev acc
  | n :: t =>
      let c := cls (utype ty n) in
      if (c <=? 2)%N then gps_fold ty cls t (ps_add c n acc)
      else if N.eqb c 3 then ps_rev acc
      else gps_fold ty cls t acc
  end.

(* the fold at a unit of class 3, and at any other *)
Lemma gps_fold_stop ty cls n t acc :
  N.eqb (cls (utype ty n)) 3 = true -> gps_fold ty cls (n :: t) acc = ps_rev acc.
Proof.
  intros E. cbn [gps_fold]. rewrite E. apply N.eqb_eq in E. rewrite E. reflexivity.
Qed.

Lemma gps_fold_go ty cls n t acc : N.eqb (cls (utype ty n)) 3 = false ->
  gps_fold ty cls (n :: t) acc =
  gps_fold ty cls t (if (cls (utype ty n) <=? 2)%N then ps_add (cls (utype ty n)) n acc else acc).
Proof. intros E. cbn [gps_fold]. rewrite E. destruct (cls (utype ty n) <=? 2)%N; reflexivity. Qed.

Lemma gps_spec ty cls : forall ns fuel P acc s,
  (length ns < fuel)%nat -> walkable ns = true -> s = P ++ sample ns ->
  gps_loop ty cls fuel s (Zlen s) (Zlen P) acc = Ok (gps_fold ty cls ns acc).
Proof.
  induction ns as [|n t IH]; intros fuel P acc s Hf Hw Hs; (destruct fuel as [|f]; [cbn [length] in Hf; lia|]);
    cbn [gps_loop].
  - rewrite (walk_end P s Hs). reflexivity.
  - cbn [walkable forallb length] in Hw, Hf. apply andb_prop in Hw. destruct Hw as [Hn Hw].
    destruct (walk_facts P n t s Hn Hs) as (F1 & F2 & F3 & F4 & F5 & F6 & F7 & F8).
    rewrite F1, F2. cbn [rbind]. rewrite F3, F5, F4, F6, F7. cbn [rbind].
    fold (utype ty n). cbn [gps_fold].
    destruct (cls (utype ty n) <=? 2)%N; [apply IH; assumption || lia|].
    destruct (N.eqb (cls (utype ty n)) 3); [reflexivity|apply IH; assumption || lia].
Qed.

(* the fold collects the units of class 0, 1 and 2 among those before the first unit of class 3 *)
Definition of_class (ty cls : N -> N) (c : N) : list (list N) -> list (list N) :=
  filter (fun n => N.eqb (cls (utype ty n)) c).

Lemma gps_fold_spec ty cls : forall ns v s p,
  gps_fold ty cls ns (v, s, p) =
  let bv := before_video ty (fun t => N.eqb (cls t) 3) ns in
  (rev v ++ of_class ty cls 0 bv, rev s ++ of_class ty cls 1 bv, rev p ++ of_class ty cls 2 bv).
Proof.
  unfold of_class. induction ns as [|n t IH]; intros v s p; cbn [gps_fold before_video].
  - cbn [filter ps_rev]. rewrite !app_nil_r. reflexivity.
  - (* the class as a binary numeral: 0, 1, 2, 3 and the four shapes of a numeral above 3 *)
    destruct (cls (utype ty n)) as [|[[q|q|]|[q|q|]|]] eqn:Ec;
      cbn [N.leb N.compare Pos.compare Pos.compare_cont N.eqb Pos.eqb ps_add ps_rev filter];
      rewrite ?IH, ?Ec; cbn [N.eqb Pos.eqb rev]; rewrite <- ?app_assoc, ?app_nil_r; reflexivity.
Qed.

(* the classes of the two codecs in terms of the unit types *)
Lemma avc_ps_class_eqb t :
  N.eqb (avc_ps_class t) 0 = false /\ N.eqb (avc_ps_class t) 1 = N.eqb t 7 /\
  N.eqb (avc_ps_class t) 2 = N.eqb t 8 /\ N.eqb (avc_ps_class t) 3 = avc_is_video t.
Proof.
  unfold avc_ps_class.
  destruct (N.eqb_spec t 7) as [->|_]; [repeat split|].
  destruct (N.eqb_spec t 8) as [->|_]; [repeat split|].
  destruct (avc_is_video t); repeat split.
Qed.

Lemma hevc_ps_class_eqb t :
  N.eqb (hevc_ps_class t) 0 = N.eqb t 32 /\ N.eqb (hevc_ps_class t) 1 = N.eqb t 33 /\
  N.eqb (hevc_ps_class t) 2 = N.eqb t 34 /\ N.eqb (hevc_ps_class t) 3 = hevc_is_video t.
Proof.
  unfold hevc_ps_class.
  destruct (N.eqb_spec t 32) as [->|_]; [repeat split|].
  destruct (N.eqb_spec t 33) as [->|_]; [repeat split|].
  destruct (N.eqb_spec t 34) as [->|_]; [repeat split|].
  destruct (hevc_is_video t); repeat split.
Qed.

Lemma before_video_ext ty (f g : N -> bool) ns : (forall t, f t = g t) ->
  before_video ty f ns = before_video ty g ns.
Proof.
  intros H. induction ns as [|n t IH]; [reflexivity|]. cbn [before_video]. rewrite H, IH. reflexivity.
Qed.

Lemma filter_false {A} (l : list A) : filter (fun _ => false) l = [].
Proof. induction l as [|a t IH]; [reflexivity|exact IH]. Qed.

Lemma gps_fold_avc ns :
  gps_fold avc_type avc_ps_class ns ([], [], []) =
  ([], of_type avc_type 7 (before_video avc_type avc_is_video ns),
       of_type avc_type 8 (before_video avc_type avc_is_video ns)).
Proof.
  rewrite gps_fold_spec. cbv zeta. unfold of_class, of_type. cbn [rev app].
  rewrite (before_video_ext _ _ avc_is_video) by (intros; apply avc_ps_class_eqb).
  rewrite (filter_ext _ (fun _ => false)), filter_false by (intros; apply avc_ps_class_eqb).
  f_equal; [f_equal|]; apply filter_ext; intros; apply avc_ps_class_eqb.
Qed.

Lemma gps_fold_hevc ns :
  gps_fold hevc_type hevc_ps_class ns ([], [], []) =
  (of_type hevc_type 32 (before_video hevc_type hevc_is_video ns),
   of_type hevc_type 33 (before_video hevc_type hevc_is_video ns),
   of_type hevc_type 34 (before_video hevc_type hevc_is_video ns)).
Proof.
  rewrite gps_fold_spec. cbv zeta. unfold of_class, of_type. cbn [rev app].
  rewrite (before_video_ext _ _ hevc_is_video) by (intros; apply hevc_ps_class_eqb).
  f_equal; [f_equal|]; apply filter_ext; intros; apply hevc_ps_class_eqb.
Qed.

(* HasParameterSets flags *)
Lemma avc_hps_spec : forall tl a b, a && b = false ->
  avc_hps_loop tl a b = (a || existsb (fun t => N.eqb t 7) tl) && (b || existsb (fun t => N.eqb t 8) tl).
Proof.
  induction tl as [|t r IH]; intros a b Hab.
  - cbn [avc_hps_loop existsb]. rewrite !orb_false_r. symmetry. exact Hab.
  - cbn [avc_hps_loop existsb].
    destruct (N.eqb t 7) eqn:E7; destruct (N.eqb t 8) eqn:E8;
      destruct a, b; try discriminate Hab; cbn [andb orb];
      try reflexivity; rewrite IH by reflexivity; cbn [orb andb]; reflexivity.
Qed.

Lemma hevc_hps_spec : forall tl a b c, a && b && c = false ->
  hevc_hps_loop tl a b c =
  (a || existsb (fun t => N.eqb t 32) tl) && (b || existsb (fun t => N.eqb t 33) tl)
  && (c || existsb (fun t => N.eqb t 34) tl).
Proof.
  induction tl as [|t r IH]; intros a b c Habc.
  - cbn [hevc_hps_loop existsb]. rewrite !orb_false_r. symmetry. exact Habc.
  - cbn [hevc_hps_loop existsb].
    destruct (N.eqb t 32) eqn:E2; destruct (N.eqb t 33) eqn:E3; destruct (N.eqb t 34) eqn:E4;
      destruct a, b, c; try discriminate Habc; cbn [andb orb];
      try reflexivity; rewrite IH by reflexivity; cbn [orb andb]; reflexivity.
Qed.

Definition in_range (lo hi : N) (t : N) : bool := (lo <=? t)%N && (t <=? hi)%N.

Lemma avc_hps_sample ns : walkable ns = true ->
  avc_has_parameter_sets (sample ns) =
    Ok (existsb (fun t => N.eqb t 7) (types_upto avc_type avc_is_video ns)
        && existsb (fun t => N.eqb t 8) (types_upto avc_type avc_is_video ns)).
Proof.
  intros Hw. unfold avc_has_parameter_sets, avc_find_nalu_types_up_to_video.
  rewrite (find_types_gen avc_type (Some avc_is_video) ns Hw). cbn [rbind walk_types].
  rewrite avc_hps_spec by reflexivity. reflexivity.
Qed.

Lemma hevc_hps_sample ns : walkable ns = true ->
  hevc_has_parameter_sets (sample ns) =
    Ok (existsb (fun t => N.eqb t 32) (types_upto hevc_type hevc_is_video ns)
        && existsb (fun t => N.eqb t 33) (types_upto hevc_type hevc_is_video ns)
        && existsb (fun t => N.eqb t 34) (types_upto hevc_type hevc_is_video ns)).
Proof.
  intros Hw. unfold hevc_has_parameter_sets, hevc_find_nalu_types_up_to_video.
  rewrite (find_types_gen hevc_type (Some hevc_is_video) ns Hw). cbn [rbind walk_types].
  rewrite hevc_hps_spec by reflexivity. reflexivity.
Qed.

(* IsRAPSample / IsIDRSample: a test over the type list *)
Lemma hevc_types_exist_sample (p : N -> bool) ns : walkable ns = true ->
  (do tl <- hevc_find_nalu_types (sample ns); Ok (existsb p tl)) = Ok (existsb p (map (utype hevc_type) ns)).
Proof.
  intros Hw. unfold hevc_find_nalu_types. rewrite (find_types_gen hevc_type None ns Hw). reflexivity.
Qed.

Lemma gps_top ty cls ns : walkable ns = true ->
  gps_loop ty cls (S (length (sample ns))) (sample ns) (Zlen (sample ns)) 0 ([], [], [])
  = Ok (gps_fold ty cls ns ([], [], [])).
Proof.
  intros Hw. pose proof (length_sample_ge ns) as Hl.
  exact (gps_spec ty cls ns (S (length (sample ns))) [] ([], [], []) _ ltac:(lia) Hw eq_refl).
Qed.

Lemma avc_gps_sample ns : walkable ns = true ->
  avc_get_parameter_sets (sample ns) =
    Ok ([], of_type avc_type 7 (before_video avc_type avc_is_video ns),
            of_type avc_type 8 (before_video avc_type avc_is_video ns)).
Proof. intros Hw. unfold avc_get_parameter_sets. rewrite gps_top, gps_fold_avc by exact Hw. reflexivity. Qed.

Lemma hevc_gps_sample ns : walkable ns = true ->
  hevc_get_parameter_sets (sample ns) =
    Ok (of_type hevc_type 32 (before_video hevc_type hevc_is_video ns),
        of_type hevc_type 33 (before_video hevc_type hevc_is_video ns),
        of_type hevc_type 34 (before_video hevc_type hevc_is_video ns)).
Proof. intros Hw. unfold hevc_get_parameter_sets. rewrite gps_top, gps_fold_hevc by exact Hw. reflexivity. Qed.
