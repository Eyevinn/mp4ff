(* C14RecogProofs.v — the recognisers of C14RecogModel.v are exact (they accept precisely the streams /
   samples built from a non-empty list of well-formed units, and read back that very list); the sample helpers
   on every BYTE STRING wf_sample accepts; the conversions on every accepted stream shorter than 4 GiB. *)
From V.lib Require Import Base.
From V.c14 Require Import C14Spec C14Model C14HevcSpec C14HevcModel C14RecogModel.
From V.c14 Require Import C14ScanProofs C14ConvProofs C14WalkProofs C14StreamProofs C14HevcProofs.
Local Open Scope Z_scope.

Lemma bytes_eqb_eq : forall a b, bytes_eqb a b = true -> a = b.
Proof.
  induction a as [|x a IH]; destruct b as [|y b]; cbn [bytes_eqb]; intros H; try discriminate; [reflexivity|].
  apply andb_prop in H. destruct H as [H1 H2]. apply N.eqb_eq in H1. subst y. f_equal. apply IH. exact H2.
Qed.

Lemma bytes_eqb_refl : forall a, bytes_eqb a a = true.
Proof. induction a as [|x a IH]; [reflexivity|]. cbn [bytes_eqb]. rewrite N.eqb_refl, IH. reflexivity. Qed.

Lemma sclen_eqb4 f : Z.eqb (sclen f) 4 = f.
Proof. destruct f; reflexivity. Qed.

Lemma cut_stream : forall t f n pos,
  cut f (n ++ stream t) pos (expected_scs (pos + Zlen n) t) = (f, n) :: t.
Proof.
  induction t as [|[f' n'] t IH]; intros f n pos.
  - cbn [stream expected_scs cut]. rewrite app_nil_r. reflexivity.
  - cbn [stream expected_scs cut].
    pose proof (Zlen_nonneg n) as Hn. pose proof (Zlen_sc f') as Hsc.
    replace (pos + Zlen n + sclen f' - sclen f' - pos) with (Zlen n) by lia.
    rewrite to_nat_Zlen, firstn_len_app.
    replace (pos + Zlen n + sclen f' - pos) with (Zlen n + Zlen (start_code f')) by lia.
    assert (Hk : Z.to_nat (Zlen n + Zlen (start_code f')) = (length n + length (start_code f'))%nat)
      by (unfold Zlen; lia).
    rewrite Hk, skipn_len_app.
    rewrite <- (Nat.add_0_r (length (start_code f'))), skipn_len_app. cbn [skipn].
    rewrite sclen_eqb4.
    f_equal. apply IH.
Qed.

Lemma unstream_stream us : wf_units us = true -> unstream (stream us) = us.
Proof.
  intros Hwf. unfold unstream. rewrite nscan_stream by exact Hwf.
  destruct us as [|[f n] t]; [reflexivity|].
  cbn [expected_scs stream]. rewrite sclen_eqb4.
  replace (0 + sclen f) with (Zlen (start_code f)) by (rewrite Zlen_sc; lia).
  rewrite to_nat_Zlen, skipn_len_app0.
  apply cut_stream.
Qed.

Lemma wf_stream_sound d : wf_stream d = true ->
  unstream d <> [] /\ wf_units (unstream d) = true /\ stream (unstream d) = d.
Proof.
  unfold wf_stream. destruct (unstream d) as [|u us] eqn:E; [discriminate|].
  intros H. apply andb_prop in H. destruct H as [H1 H2].
  split; [discriminate|]. split; [exact H1|]. apply bytes_eqb_eq. exact H2.
Qed.

Lemma wf_stream_complete us : us <> [] -> wf_units us = true -> wf_stream (stream us) = true.
Proof.
  intros Hne Hwf. unfold wf_stream. rewrite unstream_stream by exact Hwf.
  destruct us as [|u t]; [congruence|]. rewrite Hwf, bytes_eqb_refl. reflexivity.
Qed.

Lemma wf_stream_iff d :
  wf_stream d = true <-> exists us, us <> [] /\ wf_units us = true /\ stream us = d.
Proof.
  split.
  - intros H. exists (unstream d). apply wf_stream_sound. exact H.
  - intros [us [Hne [Hwf Hs]]]. subst d. apply wf_stream_complete; assumption.
Qed.

(* two well-formed unit lists (start-code lengths included) with the same stream are the same list *)
Lemma stream_injective us vs : wf_units us = true -> wf_units vs = true -> stream us = stream vs -> us = vs.
Proof.
  intros Hu Hv E. rewrite <- (unstream_stream us Hu), <- (unstream_stream vs Hv), E. reflexivity.
Qed.

Lemma fit_units_eq us : fit_units us = units_fit us.
Proof. reflexivity. Qed.

Lemma unsample_step f n rest : fits32 n = true ->
  unsample_loop (S f) (be32 (lenN n) ++ n ++ rest) =
  match unsample_loop f rest with Some t => Some (n :: t) | None => None end.
Proof.
  intros Hfit. pose proof (be32_dec_len n Hfit) as Hd. unfold be32_dec, be32 in Hd.
  unfold be32. cbn [app unsample_loop]. rewrite Hd, Zlen_app.
  pose proof (Zlen_nonneg rest).
  replace (Zlen n <=? Zlen n + Zlen rest) with true by lia.
  rewrite to_nat_Zlen, skipn_len_app0, firstn_len_app. reflexivity.
Qed.

Lemma unsample_loop_sample : forall ns fuel, forallb fits32 ns = true -> (length ns < fuel)%nat ->
  unsample_loop fuel (sample ns) = Some ns.
Proof.
  induction ns as [|n t IH]; intros fuel Hfit Hf.
  - destruct fuel; [lia|]. reflexivity.
  - destruct fuel as [|f]; [cbn [length] in Hf; lia|].
    cbn [forallb] in Hfit. apply andb_prop in Hfit. destruct Hfit as [Hn Ht].
    cbn [sample]. rewrite unsample_step by exact Hn.
    rewrite IH by (try assumption; cbn [length] in Hf; lia). reflexivity.
Qed.

Lemma unsample_sample ns : forallb fits32 ns = true -> unsample (sample ns) = Some ns.
Proof.
  intros Hfit. unfold unsample. apply unsample_loop_sample; [exact Hfit|].
  pose proof (length_sample_ge ns). lia.
Qed.

Lemma walkable_fits ns : walkable ns = true -> forallb fits32 ns = true.
Proof.
  unfold walkable. induction ns as [|n t IH]; [reflexivity|]. cbn [forallb]. intros H.
  apply andb_prop in H. destruct H as [H1 H2]. apply andb_prop in H1. destruct H1 as [_ H1].
  rewrite H1, (IH H2). reflexivity.
Qed.

Lemma wf_sample_sound s : wf_sample s = true ->
  unsample s = Some (unsample_units s) /\ unsample_units s <> [] /\
  walkable (unsample_units s) = true /\ sample (unsample_units s) = s.
Proof.
  unfold wf_sample, unsample_units. destruct (unsample s) as [[|n t]|] eqn:E; try discriminate.
  intros H. apply andb_prop in H. destruct H as [H1 H2].
  split; [reflexivity|]. split; [discriminate|]. split; [exact H1|]. apply bytes_eqb_eq. exact H2.
Qed.

Lemma wf_sample_complete ns : ns <> [] -> walkable ns = true -> wf_sample (sample ns) = true.
Proof.
  intros Hne Hw. unfold wf_sample. rewrite unsample_sample by (apply walkable_fits; exact Hw).
  destruct ns as [|n t]; [congruence|]. rewrite Hw, bytes_eqb_refl. reflexivity.
Qed.

Lemma wf_sample_iff s :
  wf_sample s = true <-> exists ns, ns <> [] /\ walkable ns = true /\ sample ns = s.
Proof.
  split.
  - intros H. exists (unsample_units s). destruct (wf_sample_sound s H) as (_ & H1 & H2 & H3). auto.
  - intros [ns [Hne [Hw Hs]]]. subst s. apply wf_sample_complete; assumption.
Qed.

Lemma sample_injective ns ms :
  forallb fits32 ns = true -> forallb fits32 ms = true -> sample ns = sample ms -> ns = ms.
Proof.
  intros Hn Hm E. pose proof (unsample_sample ns Hn) as A. pose proof (unsample_sample ms Hm) as B.
  rewrite E in A. congruence.
Qed.

Definition sample_claims (s : list N) (ns : list (list N)) : Prop :=
  get_nalus_from_sample s = Ok ns /\
  to_byte_stream s = Ok (stream4 ns) /\
  avc_find_nalu_types s = Ok (map (utype avc_type) ns) /\
  avc_find_nalu_types_up_to_video s = Ok (types_upto avc_type avc_is_video ns) /\
  (forall want, avc_contains_nalu_type s want = Ok (has_type avc_type want ns)) /\
  avc_is_idr_sample s = Ok (has_type avc_type 5 ns) /\
  avc_has_parameter_sets s =
    Ok (existsb (fun t => N.eqb t 7) (types_upto avc_type avc_is_video ns)
        && existsb (fun t => N.eqb t 8) (types_upto avc_type avc_is_video ns)) /\
  avc_get_parameter_sets s =
    Ok ([], of_type avc_type 7 (before_video avc_type avc_is_video ns),
            of_type avc_type 8 (before_video avc_type avc_is_video ns)) /\
  (hevc_units ns = true ->
     let ut := hevc_unit_type in
     hevc_FindNaluTypes s = Ok (u_types ut ns) /\
     hevc_FindNaluTypesUpToFirstVideoNalu s = Ok (u_types_upto ut hevc_vcl ns) /\
     (forall want, hevc_ContainsNaluType s want = Ok (u_has ut (fun t => N.eqb t want) ns)) /\
     hevc_IsRAPSample s = Ok (u_has ut hevc_irap ns) /\
     hevc_IsIDRSample s = Ok (u_has ut hevc_idr ns) /\
     hevc_HasParameterSets s =
       Ok (existsb (fun t => N.eqb t 32) (u_types_upto ut hevc_vcl ns)
           && existsb (fun t => N.eqb t 33) (u_types_upto ut hevc_vcl ns)
           && existsb (fun t => N.eqb t 34) (u_types_upto ut hevc_vcl ns)) /\
     hevc_GetParameterSets s =
       Ok (u_of_type ut 32 (u_before_video ut hevc_vcl ns),
           u_of_type ut 33 (u_before_video ut hevc_vcl ns),
           u_of_type ut 34 (u_before_video ut hevc_vcl ns))).

Lemma sample_claims_units ns : ns <> [] -> walkable ns = true -> sample_claims (sample ns) ns.
Proof.
  intros Hne Hw. unfold sample_claims.
  split; [apply get_nalus_spec; assumption|].
  split; [apply to_stream_spec, walkable_fits; exact Hw|].
  split; [exact (find_types_gen avc_type None ns Hw)|].
  split; [exact (find_types_gen avc_type (Some avc_is_video) ns Hw)|].
  split; [intros want; apply contains_top; exact Hw|]. split; [apply contains_top; exact Hw|].
  split; [apply avc_hps_sample; exact Hw|]. split; [apply avc_gps_sample; exact Hw|].
  exact (helpers_hevc_own_sample ns).
Qed.

Lemma sample_bytes s : wf_sample s = true ->
  unsample_units s <> [] /\ walkable (unsample_units s) = true /\ sample (unsample_units s) = s /\
  sample_claims s (unsample_units s).
Proof.
  intros H. destruct (wf_sample_sound s H) as (_ & Hne & Hw & Hs).
  split; [exact Hne|]. split; [exact Hw|]. split; [exact Hs|].
  rewrite <- Hs at 1. apply sample_claims_units; assumption.
Qed.

(* streams shorter than 4 GiB: every unit fits its length field *)
Lemma unit_le_stream : forall us u, In u us -> Zlen (snd u) <= Zlen (stream us).
Proof.
  induction us as [|[f n] t IH]; intros u Hin; [destruct Hin|].
  cbn [stream]. rewrite !Zlen_app. pose proof (Zlen_nonneg (start_code f)). pose proof (Zlen_nonneg n).
  pose proof (Zlen_nonneg (stream t)).
  destruct Hin as [<- | Hin]; [cbn [snd]; lia|]. specialize (IH u Hin). lia.
Qed.

Lemma fit_units_short us : Zlen (stream us) < 4294967296 -> fit_units us = true.
Proof.
  intros Hlt. unfold fit_units. apply forallb_forall. intros u Hin. unfold fits32.
  pose proof (unit_le_stream us u Hin). lia.
Qed.

Lemma stream_bytes_short d : wf_stream d = true -> Zlen d < 4294967296 ->
  to_nalu_sample d = Ok (sample (map snd (unstream d))) /\
  (do s <- to_nalu_sample d; to_byte_stream s) = Ok (stream4 (map snd (unstream d))).
Proof.
  intros H Hlt. destruct (wf_stream_sound d H) as (_ & Hwf & Hs).
  set (us := unstream d) in *. clearbody us. subst d. apply fit_units_short in Hlt.
  split; [apply to_sample_spec|apply roundtrip_spec]; assumption.
Qed.
