(* C14Scan32Proofs.v — the 32-bit compilation of the scanner (C14Scan32Model.v) returns the byte-by-byte scan
   on every byte string, hence the same start codes as the 64-bit compilation; the zero-byte test on a 4-byte
   word.  The scanner theorem is C14ScanProofs.scan_w_eq_naive at two probes per word. *)
From V.lib Require Import Base.
From V.c14 Require Import C14Spec C14Model C14Scan32Model C14WordProofs C14ScanProofs.
Local Open Scope Z_scope.

Lemma has_zero_byte32_hz_gen x : has_zero_byte32 x = negb (N.eqb (hz_gen 4 x) 0).
Proof.
  assert (E1 : (256 ^ N.of_nat 4 = two32)%N) by (vm_compute; reflexivity).
  assert (E2 : rep_word 1 4 = magic_left32) by (vm_compute; reflexivity).
  assert (E3 : rep_word 255 4 = N.ones 32) by (vm_compute; reflexivity).
  assert (E4 : rep_word 128 4 = magic_right32) by (vm_compute; reflexivity).
  unfold has_zero_byte32, hz_gen. rewrite E1, E2, E3, E4. reflexivity.
Qed.

Lemma has_zero_byte32_le bs :
  length bs = 4%nat -> bytes_ok bs = true -> has_zero_byte32 (word_le bs) = existsb is0 bs.
Proof.
  intros Hl Hok. rewrite has_zero_byte32_hz_gen, <- Hl, hz_gen_correct by exact Hok.
  apply negb_involutive.
Qed.

Lemma has_zero_byte32_be bs :
  length bs = 4%nat -> bytes_ok bs = true -> has_zero_byte32 (word_be bs) = existsb is0 bs.
Proof. exact (zero_test_be has_zero_byte32 4 has_zero_byte32_le bs). Qed.

Lemma scanner32_eq_naive l : bytes_ok l = true ->
  get_start_code_positions32 l = Ok (naive_scan l, min_sc_len (naive_scan l)).
Proof. exact (scan_w_eq_naive 2 has_zero_byte32 ltac:(lia) has_zero_byte32_le l). Qed.

(* both compilations of the scanner and of the conversion built on it compute the same *)
Lemma platforms_agree l : bytes_ok l = true ->
  get_start_code_positions32 l = get_start_code_positions l /\ to_nalu_sample32 l = to_nalu_sample l.
Proof.
  intros Hok. assert (E : get_start_code_positions32 l = get_start_code_positions l)
    by (rewrite scanner32_eq_naive, scanner_eq_naive by exact Hok; reflexivity).
  split; [exact E|]. unfold to_nalu_sample32, to_nalu_sample. rewrite E. reflexivity.
Qed.
