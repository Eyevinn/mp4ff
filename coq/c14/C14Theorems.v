(* C14Theorems.v — the property theorems of C14 and nothing else.  Each is an instance or an assembly of
   lemmas of the proof files and is followed by Print Assumptions (audited by ./check on every run). *)
From V.lib Require Import Base.
From V.c14 Require Import C14Spec C14Model C14WordProofs C14ScanProofs C14ConvProofs C14WalkProofs C14StreamProofs.
From V.c14 Require Import C14HevcSpec C14HevcModel C14HevcPackProofs C14HevcProofs C14AvcModel C14AvcProofs.
From V.c14 Require Import C14RecogModel C14RecogProofs C14Scan32Model C14Scan32Proofs.

(* the word bit-trick of hasZeroByte is exactly "some byte of the word is zero", for every 8-byte
   word, whichever byte order the load uses *)
Theorem C14_has_zero_byte : forall bs : list N,
  length bs = 8%nat -> bytes_ok bs = true ->
  has_zero_byte (word_le bs) = existsb is0 bs /\ has_zero_byte (word_be bs) = existsb is0 bs.
Proof. exact (fun bs Hl Hok => conj (has_zero_byte_le bs Hl Hok) (has_zero_byte_be bs Hl Hok)). Qed.
Print Assumptions C14_has_zero_byte.

Example C14_has_zero_byte_ex :
  bytes_ok [1;128;255;0;1;127;2;200]%N = true /\
  has_zero_byte (word_le [1;128;255;0;1;127;2;200]%N) = true /\
  has_zero_byte (word_le [1;128;255;1;1;127;2;200]%N) = false.
Proof. vm_compute. auto. Qed.

(* the word-at-a-time scanner (word loop with hasZeroByte + odd-offset probing, then the tail loop)
   returns exactly the byte-by-byte scan -- every position p with l[p..p+2] = 00 00 01 and p+3 < |l|,
   in order, with length 4 iff l[p-1] = 0, and the minimum length -- for EVERY byte string, hence every
   alignment mod 8, every stream length, start codes straddling word boundaries and the word/tail
   hand-over; in particular it never panics and never reads outside the slice *)
Theorem C14_scanner_eq_naive : forall l : list N,
  bytes_ok l = true ->
  get_start_code_positions l = Ok (naive_scan l, min_sc_len (naive_scan l)).
Proof. exact scanner_eq_naive. Qed.
Print Assumptions C14_scanner_eq_naive.

(* the index-based naive scan is the same as the structural byte-by-byte recursion *)
Theorem C14_naive_scan_structural : forall l : list N, nscan false 0 l = naive_scan l.
Proof. exact nscan_naive. Qed.
Print Assumptions C14_naive_scan_structural.

(* a 3-byte start code straddling the first word boundary (bytes 6,7,8) and a 4-byte one in the tail *)
Example C14_scanner_ex :
  let l := [9;9;9;9;9;9;0;0;1;7;7;7;7;7;7;7;7;7;7;7;0;0;0;1;5]%N in
  bytes_ok l = true /\ get_start_code_positions l = Ok ([(3, 9); (4, 24)]%Z, 3%Z) /\
  naive_scan l = [(3, 9); (4, 24)]%Z.
Proof. vm_compute. auto. Qed.

(* on every stream built from well-formed units (non-empty, last byte non-zero, no 00 00 01 inside) with
   ANY mix of 3- and 4-byte start codes, the scanner reports exactly the generating start codes *)
Theorem C14_scan_stream : forall us : list (bool * list N),
  wf_units us = true ->
  get_start_code_positions (stream us) = Ok (expected_scs 0 us, min_sc_len (expected_scs 0 us)).
Proof. exact scan_stream. Qed.
Print Assumptions C14_scan_stream.

(* ConvertByteStreamToNaluSample yields exactly the units behind 4-byte big-endian length fields,
   in the in-place branch (all start codes 4 bytes) and in the copying branch (any mix) *)
Theorem C14_to_sample : forall us : list (bool * list N),
  wf_units us = true -> units_fit us = true ->
  to_nalu_sample (stream us) = Ok (sample (map snd us)).
Proof. exact to_sample_spec. Qed.
Print Assumptions C14_to_sample.

(* ConvertSampleToByteStream yields the same units behind 4-byte start codes (units may even be empty) *)
Theorem C14_to_stream : forall ns : list (list N),
  forallb fits32 ns = true -> to_byte_stream (sample ns) = Ok (stream4 ns).
Proof. exact to_stream_spec. Qed.
Print Assumptions C14_to_stream.

Theorem C14_roundtrip : forall us : list (bool * list N),
  wf_units us = true -> units_fit us = true ->
  (do s <- to_nalu_sample (stream us); to_byte_stream s) = Ok (stream4 (map snd us)).
Proof. exact roundtrip_spec. Qed.
Print Assumptions C14_roundtrip.

(* hypotheses are satisfiable: a mixed 3/4-byte stream whose second start code straddles a word boundary,
   and an all-4-byte stream (in-place branch) *)
Example C14_conv_ex :
  let us := [(false, [103;66;0;3;1]); (true, [104;206;0;0;3;2;128]); (false, [101])]%N in
  let us4 := [(true, [103;66]); (true, [101;136;132;0;255])]%N in
  wf_units us = true /\ units_fit us = true /\ wf_units us4 = true /\
  to_nalu_sample (stream us) = Ok (sample (map snd us)) /\
  to_nalu_sample (stream us4) = Ok (sample (map snd us4)) /\
  min_sc_len (expected_scs 0 us) = 3%Z /\ min_sc_len (expected_scs 0 us4) = 4%Z.
Proof. vm_compute. repeat split; reflexivity. Qed.

(* AVC helpers that walk a sample: on `sample ns` (units non-empty, each shorter than 2^32) they return
   the obvious functions of the unit list ns *)
Theorem C14_helpers_avc_sample : forall ns : list (list N), walkable ns = true ->
  (ns <> [] -> get_nalus_from_sample (sample ns) = Ok ns) /\
  avc_find_nalu_types (sample ns) = Ok (map (utype avc_type) ns) /\
  avc_find_nalu_types_up_to_video (sample ns) = Ok (types_upto avc_type avc_is_video ns) /\
  (forall want, avc_contains_nalu_type (sample ns) want = Ok (has_type avc_type want ns)) /\
  avc_is_idr_sample (sample ns) = Ok (has_type avc_type 5 ns) /\
  avc_has_parameter_sets (sample ns) =
    Ok (existsb (fun t => N.eqb t 7) (types_upto avc_type avc_is_video ns)
        && existsb (fun t => N.eqb t 8) (types_upto avc_type avc_is_video ns)) /\
  avc_get_parameter_sets (sample ns) =
    Ok ([], of_type avc_type 7 (before_video avc_type avc_is_video ns),
            of_type avc_type 8 (before_video avc_type avc_is_video ns)).
Proof.
  intros ns Hw.
  split; [intros Hne; apply get_nalus_spec; assumption|].
  split; [exact (find_types_gen avc_type None ns Hw)|].
  split; [exact (find_types_gen avc_type (Some avc_is_video) ns Hw)|].
  split; [intros want; apply contains_top; exact Hw|]. split; [apply contains_top; exact Hw|].
  split; [apply avc_hps_sample|apply avc_gps_sample]; exact Hw.
Qed.
Print Assumptions C14_helpers_avc_sample.

Theorem C14_helpers_hevc_sample : forall ns : list (list N), walkable ns = true ->
  hevc_find_nalu_types (sample ns) = Ok (map (utype hevc_type) ns) /\
  hevc_find_nalu_types_up_to_video (sample ns) = Ok (types_upto hevc_type hevc_is_video ns) /\
  (forall want, hevc_contains_nalu_type (sample ns) want = Ok (has_type hevc_type want ns)) /\
  hevc_is_rap_sample (sample ns) = Ok (existsb (in_range 16 23) (map (utype hevc_type) ns)) /\
  hevc_is_idr_sample (sample ns) = Ok (existsb (in_range 19 20) (map (utype hevc_type) ns)) /\
  hevc_has_parameter_sets (sample ns) =
    Ok (existsb (fun t => N.eqb t 32) (types_upto hevc_type hevc_is_video ns)
        && existsb (fun t => N.eqb t 33) (types_upto hevc_type hevc_is_video ns)
        && existsb (fun t => N.eqb t 34) (types_upto hevc_type hevc_is_video ns)) /\
  hevc_get_parameter_sets (sample ns) =
    Ok (of_type hevc_type 32 (before_video hevc_type hevc_is_video ns),
        of_type hevc_type 33 (before_video hevc_type hevc_is_video ns),
        of_type hevc_type 34 (before_video hevc_type hevc_is_video ns)).
Proof.
  intros ns Hw.
  split; [exact (find_types_gen hevc_type None ns Hw)|].
  split; [exact (find_types_gen hevc_type (Some hevc_is_video) ns Hw)|].
  split; [intros want; apply hevc_contains_top; exact Hw|].
  split; [exact (hevc_types_exist_sample _ ns Hw)|]. split; [exact (hevc_types_exist_sample _ ns Hw)|].
  split; [apply hevc_hps_sample|apply hevc_gps_sample]; exact Hw.
Qed.
Print Assumptions C14_helpers_hevc_sample.

Example C14_helpers_ex :
  let ns := [[9;16]; [103;66;0]; [104;206]; [101;136;132]; [104;1]]%N in
  walkable ns = true /\
  avc_find_nalu_types (sample ns) = Ok [9;7;8;5;8]%N /\
  avc_find_nalu_types_up_to_video (sample ns) = Ok [9;7;8;5]%N /\
  avc_get_parameter_sets (sample ns) = Ok ([], [[103;66;0]], [[104;206]])%N /\
  hevc_is_rap_sample (sample [[64;1;12]; [38;1;175]]%N) = Ok true.
Proof. vm_compute. repeat split; reflexivity. Qed.

(* the byte-stream loop skeleton shared by the four Annex B helpers visits, on ANY byte string, exactly
   the start-code positions of the naive scan (in order) *)
Theorem C14_byte_stream_loop_events :
  forall (St R : Type) (body : Z -> St -> res (St + R)) (d : list N) (st : St),
  bs_loop body (S (length d)) d (Zlen d) 0 st =
  bs_events body (filter (is_sc d) (zrange 0 (Z.to_nat (Zlen d - 3 - 0)))) st.
Proof. exact (fun St R body d st => bs_loop_events body d (S (length d)) 0%Z st (Z.le_refl 0) ltac:(unfold Zlen; lia)). Qed.
Print Assumptions C14_byte_stream_loop_events.

(* helpers that walk an Annex B byte stream (AVC and HEVC): on `stream us` (well-formed units, any
   start-code mix) they return the obvious functions of the unit list *)
Theorem C14_helpers_stream : forall us : list (bool * list N), wf_units us = true ->
  let ns := map snd us in
  extract_nalus_from_byte_stream (stream us) = Ok ns /\
  avc_get_first_video_nalu (stream us) = Ok (first_video avc_type avc_is_video ns) /\
  avc_get_parameter_sets_from_byte_stream (stream us) =
    Ok ([], of_type avc_type 7 (before_video avc_type avc_is_video ns),
            of_type avc_type 8 (before_video avc_type avc_is_video ns)) /\
  hevc_get_parameter_sets_from_byte_stream (stream us) =
    Ok (of_type hevc_type 32 (before_video hevc_type hevc_is_video ns),
        of_type hevc_type 33 (before_video hevc_type hevc_is_video ns),
        of_type hevc_type 34 (before_video hevc_type hevc_is_video ns)) /\
  (forall want stop, avc_extract_nalus_of_type want stop (stream us) =
     Ok (of_type avc_type want (if stop then before_video avc_type avc_is_video ns else ns))) /\
  (forall want stop, hevc_extract_nalus_of_type want stop (stream us) =
     Ok (of_type hevc_type want (if stop then before_video hevc_type hevc_is_video ns else ns))).
Proof.
  intros us Hwf ns.
  split; [apply enb_stream; exact Hwf|]. split; [apply gfv_stream; exact Hwf|].
  split; [apply gpsb_stream_avc; exact Hwf|]. split; [apply gpsb_stream_hevc; exact Hwf|].
  split; intros want stop.
  - exact (enot_stream_isv avc_type 6 avc_is_video avc_lt6 want stop us Hwf).
  - exact (enot_stream_isv hevc_type 32 hevc_is_video hevc_lt32 want stop us Hwf).
Qed.
Print Assumptions C14_helpers_stream.

(* SPS, PPS with nothing after them: the last parameter set is returned (it was lost before the fix) *)
Example C14_helpers_stream_ex :
  let us := [(true, [103;170]); (false, [104;187])]%N in
  wf_units us = true /\
  avc_get_parameter_sets_from_byte_stream (stream us) = Ok ([], [[103;170]], [[104;187]])%N /\
  extract_nalus_from_byte_stream (stream us) = Ok [[103;170]; [104;187]]%N /\
  avc_extract_nalus_of_type 0 true (stream [(true, [160])]%N) = Ok [].
Proof. vm_compute. repeat split; reflexivity. Qed.

(* C14HevcModel.v transcribes every HEVC helper from the text of hevc/hevc.go and hevc/annexb.go (it is the
   model the correspondence check runs against the hevc package).  On EVERY input -- well-formed or not --
   it computes what the shared loop transcriptions of C14Model.v compute when instantiated with the HEVC
   type function, so the two independent hand transcriptions of the hevc code agree. *)
Theorem C14_hevc_transcriptions_agree : forall s : list N,
  hevc_FindNaluTypes s = hevc_find_nalu_types s /\
  hevc_FindNaluTypesUpToFirstVideoNalu s = hevc_find_nalu_types_up_to_video s /\
  (forall want, hevc_ContainsNaluType s want = hevc_contains_nalu_type s want) /\
  hevc_IsRAPSample s = hevc_is_rap_sample s /\
  hevc_IsIDRSample s = hevc_is_idr_sample s /\
  hevc_HasParameterSets s = hevc_has_parameter_sets s /\
  hevc_GetParameterSets s = hevc_get_parameter_sets s /\
  hevc_GetParameterSetsFromByteStream s = hevc_get_parameter_sets_from_byte_stream s /\
  (forall want stop, hevc_ExtractNalusOfTypeFromByteStream want s stop = hevc_extract_nalus_of_type want stop s).
Proof.
  intros s.
  split; [apply hevc_FindNaluTypes_eq|]. split; [apply hevc_FindNaluTypesUpToFirstVideoNalu_eq|].
  split; [intros want; apply hevc_ContainsNaluType_eq|].
  split; [apply hevc_IsRAPSample_eq|]. split; [apply hevc_IsIDRSample_eq|].
  split; [apply hevc_HasParameterSets_eq|]. split; [apply hevc_GetParameterSets_eq|].
  split; [apply hevc_gpsb_eq|intros want stop; apply hevc_enot_eq].
Qed.
Print Assumptions C14_hevc_transcriptions_agree.

(* the tail of hevc.GetParameterSetsFromByteStream -- psData := make([]byte, totSize), three copy loops sharing
   psData and pos, every set replaced by a sub-slice of psData -- returns exactly the sets when totSize is
   their total length (that the scanning loop maintains totSize = total length, on every input, is part of
   the proof of C14_hevc_transcriptions_agree) *)
Theorem C14_hevc_repack_exact : forall v s p : list (list N),
  hevc_repack (v, s, p) (sum3 (v, s, p)) = Ok (v, s, p).
Proof. exact repack_exact. Qed.
Print Assumptions C14_hevc_repack_exact.

(* a totSize that is one short is not harmless: the last set cannot be re-sliced from psData *)
Example C14_hevc_repack_ex :
  hevc_repack ([[64;1;12]], [[66;1;1]; [66;1;2;3]], [[68;1]])%N 12 = Ok ([[64;1;12]], [[66;1;1]; [66;1;2;3]], [[68;1]])%N /\
  hevc_repack ([[64;1;12]], [[66;1;1]; [66;1;2;3]], [[68;1]])%N 11 = Panic.
Proof. vm_compute. split; reflexivity. Qed.

(* nal_unit_type, bits 14..9 of the two-byte HEVC NAL unit header, is what hevc.GetNaluType computes from the
   first header byte alone *)
Theorem C14_hevc_header_type : forall n : list N,
  hevc_hdr_ok n = true -> hevc_unit_type n = hevc_GetNaluType (hd0 n).
Proof. exact hevc_unit_type_first_byte. Qed.
Print Assumptions C14_hevc_header_type.

(* every HEVC helper that walks a SAMPLE (and the codec-agnostic unit lister), on the sample built from ANY
   list of units that carry a two-byte header and fit the length field: the obvious functions of the unit
   list, the type of a unit being the nal_unit_type field of its header *)
Theorem C14_helpers_hevc_units_sample : forall ns : list (list N), hevc_units ns = true ->
  let ut := hevc_unit_type in
  (ns <> [] -> get_nalus_from_sample (sample ns) = Ok ns) /\
  hevc_FindNaluTypes (sample ns) = Ok (u_types ut ns) /\
  hevc_FindNaluTypesUpToFirstVideoNalu (sample ns) = Ok (u_types_upto ut hevc_vcl ns) /\
  (forall want, hevc_ContainsNaluType (sample ns) want = Ok (u_has ut (fun t => N.eqb t want) ns)) /\
  hevc_IsRAPSample (sample ns) = Ok (u_has ut hevc_irap ns) /\
  hevc_IsIDRSample (sample ns) = Ok (u_has ut hevc_idr ns) /\
  hevc_HasParameterSets (sample ns) =
    Ok (existsb (fun t => N.eqb t 32) (u_types_upto ut hevc_vcl ns)
        && existsb (fun t => N.eqb t 33) (u_types_upto ut hevc_vcl ns)
        && existsb (fun t => N.eqb t 34) (u_types_upto ut hevc_vcl ns)) /\
  hevc_GetParameterSets (sample ns) =
    Ok (u_of_type ut 32 (u_before_video ut hevc_vcl ns),
        u_of_type ut 33 (u_before_video ut hevc_vcl ns),
        u_of_type ut 34 (u_before_video ut hevc_vcl ns)).
Proof.
  intros ns Hu ut.
  split; [intros Hne; apply get_nalus_spec, hevc_units_walkable; assumption|exact (helpers_hevc_own_sample ns Hu)].
Qed.
Print Assumptions C14_helpers_hevc_units_sample.

(* every HEVC helper that walks an Annex B BYTE STREAM (and the codec-agnostic unit lister), on the stream
   built from ANY list of well-formed units with a two-byte header behind any mix of 3- and 4-byte start codes *)
Theorem C14_helpers_hevc_units_stream : forall us : list (bool * list N), hevc_stream_units us = true ->
  let ut := hevc_unit_type in
  let ns := map snd us in
  extract_nalus_from_byte_stream (stream us) = Ok ns /\
  hevc_GetParameterSetsFromByteStream (stream us) =
    Ok (u_of_type ut 32 (u_before_video ut hevc_vcl ns),
        u_of_type ut 33 (u_before_video ut hevc_vcl ns),
        u_of_type ut 34 (u_before_video ut hevc_vcl ns)) /\
  (forall want stop, hevc_ExtractNalusOfTypeFromByteStream want (stream us) stop =
     Ok (u_of_type ut want (if stop then u_before_video ut hevc_vcl ns else ns))).
Proof.
  intros us Hu ut ns.
  split; [apply enb_stream, hevc_stream_units_parts, Hu|].
  split; [exact (hevc_own_gpsb_stream us Hu)|intros want stop; exact (hevc_own_enot_stream us want stop Hu)].
Qed.
Print Assumptions C14_helpers_hevc_units_stream.

(* hypotheses are satisfiable: AUD(35) VPS(32) SPS(33) PPS(34) VPS(32, a duplicate) SEI(39) IDR_W_RADL(19) PPS(34);
   the second header byte carries nuh_layer_id / temporal id and does not influence the type *)
Example C14_helpers_hevc_units_ex :
  let us := [(true, [70;1;80]); (true, [64;1;12;1]); (false, [66;1;1;96]); (false, [68;1;193]);
             (true, [64;9;13]); (false, [78;1;5;128]); (true, [38;1;175;6]); (false, [68;1;200])]%N in
  let ns := map snd us in
  hevc_units ns = true /\ hevc_stream_units us = true /\
  u_types hevc_unit_type ns = [35;32;33;34;32;39;19;34]%N /\
  hevc_FindNaluTypesUpToFirstVideoNalu (sample ns) = Ok [35;32;33;34;32;39;19]%N /\
  hevc_IsRAPSample (sample ns) = Ok true /\ hevc_IsIDRSample (sample ns) = Ok true /\
  hevc_HasParameterSets (sample ns) = Ok true /\
  hevc_GetParameterSets (sample ns) = Ok ([[64;1;12;1]; [64;9;13]], [[66;1;1;96]], [[68;1;193]])%N /\
  hevc_GetParameterSetsFromByteStream (stream us) = Ok ([[64;1;12;1]; [64;9;13]], [[66;1;1;96]], [[68;1;193]])%N /\
  hevc_ExtractNalusOfTypeFromByteStream 34 (stream us) false = Ok [[68;1;193]; [68;1;200]]%N /\
  hevc_ExtractNalusOfTypeFromByteStream 34 (stream us) true = Ok [[68;1;193]]%N.
Proof. vm_compute. repeat split; reflexivity. Qed.

(* C14AvcModel.v transcribes the function including totSize and the repacking into psData (this is the model
   the correspondence runs against avc.GetParameterSetsFromByteStream); on EVERY input it returns the sets of
   the shorter transcription, which has no VPS list *)
Theorem C14_avc_gpsb_full : forall s : list N,
  avc_get_parameter_sets_from_byte_stream s
  = (do a <- avc_GetParameterSetsFromByteStream s; Ok ([], fst a, snd a)).
Proof. exact avc_gpsb_full. Qed.
Print Assumptions C14_avc_gpsb_full.

Theorem C14_avc_gpsb_stream : forall us : list (bool * list N), wf_units us = true ->
  avc_GetParameterSetsFromByteStream (stream us)
  = Ok (of_type avc_type 7 (before_video avc_type avc_is_video (map snd us)),
        of_type avc_type 8 (before_video avc_type avc_is_video (map snd us))).
Proof. exact avc_gpsb_full_stream. Qed.
Print Assumptions C14_avc_gpsb_stream.

(* AUD, SPS, PPS, a second PPS, IDR slice, a PPS behind the video unit *)
Example C14_avc_gpsb_ex :
  let us := [(true, [9;16]); (true, [103;66;0;30]); (false, [104;206;60;128]); (false, [104;1]);
             (true, [101;136;132]); (false, [104;2])]%N in
  wf_units us = true /\
  avc_GetParameterSetsFromByteStream (stream us) = Ok ([[103;66;0;30]], [[104;206;60;128]; [104;1]])%N.
Proof. vm_compute. split; reflexivity. Qed.

(* C14RecogModel.v makes the property's quantifier ("every well-formed Annex B stream") executable: unstream d
   cuts d at the start codes of the byte-by-byte scan, wf_stream d checks that there is at least one unit, that
   every unit is well formed and that d is nothing but those units behind their start codes.  The recogniser is
   EXACT: it accepts precisely the streams of non-empty lists of well-formed units, reads back the generating
   list (start-code lengths included), so that list -- "the NAL units between the start codes" -- is unique. *)
Theorem C14_stream_recogniser_exact :
  (forall d : list N, wf_stream d = true <-> exists us, us <> [] /\ wf_units us = true /\ stream us = d) /\
  (forall us, wf_units us = true -> unstream (stream us) = us) /\
  (forall us vs, wf_units us = true -> wf_units vs = true -> stream us = stream vs -> us = vs).
Proof. exact (conj wf_stream_iff (conj unstream_stream stream_injective)). Qed.
Print Assumptions C14_stream_recogniser_exact.

(* every clause of the property about Annex B streams, for EVERY byte string the recogniser accepts, in terms
   of the units read from the bytes (no generating list in the statement) *)
Theorem C14_stream_bytes : forall d : list N, wf_stream d = true ->
  let us := unstream d in
  let ns := map snd us in
  us <> [] /\ wf_units us = true /\ stream us = d /\
  get_start_code_positions d = Ok (expected_scs 0 us, min_sc_len (expected_scs 0 us)) /\
  naive_scan d = expected_scs 0 us /\
  (fit_units us = true ->
     to_nalu_sample d = Ok (sample ns) /\
     (do s <- to_nalu_sample d; to_byte_stream s) = Ok (stream4 ns)) /\
  extract_nalus_from_byte_stream d = Ok ns /\
  avc_get_first_video_nalu d = Ok (first_video avc_type avc_is_video ns) /\
  avc_GetParameterSetsFromByteStream d =
    Ok (of_type avc_type 7 (before_video avc_type avc_is_video ns),
        of_type avc_type 8 (before_video avc_type avc_is_video ns)) /\
  (forall want stop, avc_extract_nalus_of_type want stop d =
     Ok (of_type avc_type want (if stop then before_video avc_type avc_is_video ns else ns))) /\
  (hevc_stream_units us = true ->
     hevc_GetParameterSetsFromByteStream d =
       Ok (u_of_type hevc_unit_type 32 (u_before_video hevc_unit_type hevc_vcl ns),
           u_of_type hevc_unit_type 33 (u_before_video hevc_unit_type hevc_vcl ns),
           u_of_type hevc_unit_type 34 (u_before_video hevc_unit_type hevc_vcl ns)) /\
     (forall want stop, hevc_ExtractNalusOfTypeFromByteStream want d stop =
        Ok (u_of_type hevc_unit_type want (if stop then u_before_video hevc_unit_type hevc_vcl ns else ns)))).
Proof.
  intros d H us ns. destruct (wf_stream_sound d H) as (Hne & Hwf & Hs). fold us in Hne, Hwf, Hs.
  subst ns. clearbody us. subst d.
  split; [exact Hne|]. split; [exact Hwf|]. split; [reflexivity|].
  split; [apply scan_stream; exact Hwf|].
  split; [rewrite <- nscan_naive; apply nscan_stream; exact Hwf|].
  split; [intros Hfit; split; [apply to_sample_spec|apply roundtrip_spec]; assumption|].
  split; [apply enb_stream; exact Hwf|]. split; [apply gfv_stream; exact Hwf|].
  split; [apply avc_gpsb_full_stream; exact Hwf|].
  split; [intros want stop; exact (enot_stream_isv avc_type 6 avc_is_video avc_lt6 want stop us Hwf)|].
  intros Hh. split; [exact (hevc_own_gpsb_stream us Hh)|intros want stop; exact (hevc_own_enot_stream us want stop Hh)].
Qed.
Print Assumptions C14_stream_bytes.

(* a stream shorter than 4 GiB needs no hypothesis on the unit sizes: every unit fits its 4-byte length field *)
Theorem C14_stream_bytes_short : forall d : list N, wf_stream d = true -> (Zlen d < 4294967296)%Z ->
  to_nalu_sample d = Ok (sample (map snd (unstream d))) /\
  (do s <- to_nalu_sample d; to_byte_stream s) = Ok (stream4 (map snd (unstream d))).
Proof. exact stream_bytes_short. Qed.
Print Assumptions C14_stream_bytes_short.

(* accepted: a mixed 3/4-byte stream, and 67 00 | 00 00 01 read as the unit 67 behind a 4-byte start code (one
   zero byte in front of 00 00 01 always belongs to the start code); rejected: a byte in front of the first
   start code, a unit that would end in 00, an empty unit between two start codes, no start code at all *)
Example C14_stream_bytes_ex :
  let d := [0;0;0;1;103;66;0;3;1; 0;0;1;104;206;0;0;3;2;128; 0;0;0;1;101]%N in
  wf_stream d = true /\
  unstream d = [(true, [103;66;0;3;1]); (false, [104;206;0;0;3;2;128]); (true, [101])]%N /\
  fit_units (unstream d) = true /\
  wf_stream (9 :: d)%N = false /\
  unstream [0;0;1;103;0; 0;0;1;104]%N = [(false, [103]); (true, [104])]%N /\
  wf_stream [0;0;1;103;0; 0;0;1;104]%N = true /\
  wf_stream [0;0;1;103;0;0; 0;0;1;104]%N = false /\
  wf_stream [0;0;1; 0;0;1;104]%N = false /\
  wf_stream [1;2;3;4;5]%N = false /\ wf_stream [] = false.
Proof. vm_compute. repeat split; reflexivity. Qed.

(* the same for length-prefixed samples: unsample follows the 4-byte big-endian length fields, wf_sample accepts
   precisely the samples of non-empty lists of non-empty units shorter than 2^32, and the unit list is unique *)
Theorem C14_sample_recogniser_exact :
  (forall s : list N, wf_sample s = true <-> exists ns, ns <> [] /\ walkable ns = true /\ sample ns = s) /\
  (forall ns, forallb fits32 ns = true -> unsample (sample ns) = Some ns) /\
  (forall ns ms, forallb fits32 ns = true -> forallb fits32 ms = true -> sample ns = sample ms -> ns = ms).
Proof. exact (conj wf_sample_iff (conj unsample_sample sample_injective)). Qed.
Print Assumptions C14_sample_recogniser_exact.

Theorem C14_sample_bytes : forall s : list N, wf_sample s = true ->
  let ns := unsample_units s in
  ns <> [] /\ walkable ns = true /\ sample ns = s /\
  get_nalus_from_sample s = Ok ns /\
  to_byte_stream s = Ok (stream4 ns) /\
  avc_find_nalu_types s = Ok (map (utype avc_type) ns) /\
  avc_find_nalu_types_up_to_video s = Ok (types_upto avc_type avc_is_video ns) /\
  (forall want, avc_contains_nalu_type s want = Ok (has_type avc_type want ns)) /\
  avc_is_idr_sample s = Ok (has_type avc_type 5 ns) /\
  avc_has_parameter_sets s =
    Ok (existsb (fun t => N.eqb t 7) (types_upto avc_type avc_is_video ns)
        && existsb (fun t => N.eqb t 8) (types_upto avc_type avc_is_video ns)) /\
  avc_get_parameter_sets s =
    Ok ([], of_type avc_type 7 (before_video avc_type avc_is_video ns),
            of_type avc_type 8 (before_video avc_type avc_is_video ns)) /\
  (hevc_units ns = true ->
     let ut := hevc_unit_type in
     hevc_FindNaluTypes s = Ok (u_types ut ns) /\
     hevc_FindNaluTypesUpToFirstVideoNalu s = Ok (u_types_upto ut hevc_vcl ns) /\
     (forall want, hevc_ContainsNaluType s want = Ok (u_has ut (fun t => N.eqb t want) ns)) /\
     hevc_IsRAPSample s = Ok (u_has ut hevc_irap ns) /\
     hevc_IsIDRSample s = Ok (u_has ut hevc_idr ns) /\
     hevc_HasParameterSets s =
       Ok (existsb (fun t => N.eqb t 32) (u_types_upto ut hevc_vcl ns)
           && existsb (fun t => N.eqb t 33) (u_types_upto ut hevc_vcl ns)
           && existsb (fun t => N.eqb t 34) (u_types_upto ut hevc_vcl ns)) /\
     hevc_GetParameterSets s =
       Ok (u_of_type ut 32 (u_before_video ut hevc_vcl ns),
           u_of_type ut 33 (u_before_video ut hevc_vcl ns),
           u_of_type ut 34 (u_before_video ut hevc_vcl ns))).
Proof. exact sample_bytes. Qed.
Print Assumptions C14_sample_bytes.

(* accepted: VPS SPS PPS IDR (HEVC headers); rejected: a length field one too large, a zero length field,
   three stray bytes behind the last unit *)
Example C14_sample_bytes_ex :
  let s := [0;0;0;3;64;1;12; 0;0;0;4;66;1;1;96; 0;0;0;3;68;1;193; 0;0;0;4;38;1;175;6]%N in
  wf_sample s = true /\
  unsample_units s = [[64;1;12]; [66;1;1;96]; [68;1;193]; [38;1;175;6]]%N /\
  hevc_units (unsample_units s) = true /\
  wf_sample [0;0;0;3;64;1]%N = false /\
  wf_sample [0;0;0;0; 0;0;0;1;9]%N = false /\
  wf_sample [0;0;0;1;9; 1;2;3]%N = false /\ wf_sample [] = false.
Proof. vm_compute. repeat split; reflexivity. Qed.

(* avc/annexb.go sizes everything by uintSize = unsafe.Sizeof(uint(0)): on a 32-bit platform the word loop loads
   4 bytes, the magic constants are 0x01010101 / 0x80808080, two odd offsets are probed per word and the tail loop
   starts at len - len%4 - 4.  C14Scan32Model.v transcribes that compilation (checks/c14.py runs it against a
   GOARCH=386 build of the real code).  The word trick is right for 4-byte words (either byte order), the scanner
   returns the byte-by-byte scan on EVERY byte string, so both platforms find the same start codes and convert
   alike: every C14 theorem about streams holds for the 32-bit compilation as well. *)
Theorem C14_has_zero_byte32 : forall bs : list N,
  length bs = 4%nat -> bytes_ok bs = true ->
  has_zero_byte32 (word_le bs) = existsb is0 bs /\ has_zero_byte32 (word_be bs) = existsb is0 bs.
Proof. exact (fun bs Hl Hok => conj (has_zero_byte32_le bs Hl Hok) (has_zero_byte32_be bs Hl Hok)). Qed.
Print Assumptions C14_has_zero_byte32.

Theorem C14_scanner32_eq_naive : forall l : list N,
  bytes_ok l = true ->
  get_start_code_positions32 l = Ok (naive_scan l, min_sc_len (naive_scan l)) /\
  get_start_code_positions32 l = get_start_code_positions l /\
  to_nalu_sample32 l = to_nalu_sample l.
Proof. exact (fun l Hok => conj (scanner32_eq_naive l Hok) (platforms_agree l Hok)). Qed.
Print Assumptions C14_scanner32_eq_naive.

(* a 3-byte start code straddling the first 4-byte word boundary (bytes 2,3,4), one straddling the word/tail
   hand-over and a 4-byte one in the tail; the zero-byte test on 4-byte words *)
Example C14_scanner32_ex :
  let l := [9;9;0;0;1;7;7;7;7;7;0;0;1;7;7;0;0;0;1;5]%N in
  bytes_ok l = true /\ get_start_code_positions32 l = Ok ([(3, 5); (3, 13); (4, 19)]%Z, 3%Z) /\
  naive_scan l = [(3, 5); (3, 13); (4, 19)]%Z /\
  has_zero_byte32 (word_le [1;128;0;255]%N) = true /\ has_zero_byte32 (word_le [1;128;255;1]%N) = false.
Proof. vm_compute. repeat split; reflexivity. Qed.
