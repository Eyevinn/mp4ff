(* C14HevcPackProofs.v — the repacking tail of hevc.GetParameterSetsFromByteStream (psData := make(totSize),
   three copy loops, results re-sliced from psData): when totSize is the total length of the sets it returns
   exactly the sets; and `slice` yields b - a bytes (what `totSize += currNaluEnd - currNaluStart` counts). *)
From V.lib Require Import Base.
From V.c14 Require Import C14Spec C14Model C14HevcModel C14ScanProofs C14ConvProofs.
Local Open Scope Z_scope.

Definition sum_len (l : list (list N)) : Z := fold_right (fun x a => Zlen x + a) 0 l.
Definition sum3 (a : hevc_ps) : Z := let '(v, s, p) := a in sum_len v + sum_len s + sum_len p.

Lemma sum_len_nonneg l : 0 <= sum_len l.
Proof. induction l as [|x r IH]; cbn [sum_len fold_right]; [lia|]. pose proof (Zlen_nonneg x). fold (sum_len r). lia. Qed.

Lemma sum_len_cons x r : sum_len (x :: r) = Zlen x + sum_len r.
Proof. reflexivity. Qed.

Lemma sum_len_app a b : sum_len (a ++ b) = sum_len a + sum_len b.
Proof. induction a as [|x r IH]; [reflexivity|]. cbn [app]. rewrite !sum_len_cons, IH. lia. Qed.

Lemma sum_len_rev l : sum_len (rev l) = sum_len l.
Proof.
  induction l as [|x r IH]; [reflexivity|]. cbn [rev]. rewrite sum_len_app, IH, !sum_len_cons.
  change (sum_len []) with 0. lia.
Qed.

Lemma sum3_ps_add c x a : sum3 (ps_add c x a) = Zlen x + sum3 a.
Proof.
  destruct a as [[v s] p]. unfold ps_add. destruct (N.eqb c 0), (N.eqb c 1); cbn [sum3]; rewrite sum_len_cons; lia.
Qed.

Lemma sum3_ps_rev a : sum3 (ps_rev a) = sum3 a.
Proof. destruct a as [[v s] p]. cbn [sum3 ps_rev]. rewrite !sum_len_rev. reflexivity. Qed.

Lemma Zlen_concat l : Zlen (concat l) = sum_len l.
Proof. induction l as [|x r IH]; [reflexivity|]. cbn [concat]. rewrite Zlen_app, IH. reflexivity. Qed.

Lemma slice_Zlen l a b x : slice l a b = Ok x -> Zlen x = b - a.
Proof.
  unfold slice. destruct ((0 <=? a) && (a <=? b) && (b <=? Zlen l)) eqn:E; [|discriminate].
  intros H. injection H as <-. unfold Zlen in *. rewrite firstn_length, skipn_length. lia.
Qed.

(* `totSize += currNaluEnd - currNaluStart` beside `append(xs, data[currNaluStart:currNaluEnd])` *)
Lemma tot_size_step tot a c x l lo hi : slice l lo hi = Ok x -> tot + sum3 a + (hi - lo) = tot + sum3 (ps_add c x a).
Proof. intros H. rewrite sum3_ps_add, (slice_Zlen _ _ _ _ H). lia. Qed.

Lemma skipn_add {A} (l : list A) : forall a b, skipn a (skipn b l) = skipn (b + a) l.
Proof.
  induction l as [|x r IH]; intros a b.
  - rewrite !skipn_nil. reflexivity.
  - destruct b as [|b]; [reflexivity|]. cbn [skipn plus]. apply IH.
Qed.

Lemma Zlen_skipn {A} (l : list A) k : Zlen (skipn k l) = Zlen l - Z.of_nat (Nat.min k (length l)).
Proof. unfold Zlen. rewrite skipn_length. lia. Qed.

(* copy(psData[pos:], x) when x fits behind pos *)
Lemma copy_tail (P T x : list N) : Zlen x <= Zlen T ->
  copy_into (P ++ T) (Zlen P) (Zlen (P ++ T)) x = Ok (P ++ x ++ skipn (length x) T).
Proof.
  intros Hx. unfold copy_into. pose proof (Zlen_nonneg P). pose proof (Zlen_nonneg T). pose proof (Zlen_nonneg x).
  rewrite Zlen_app.
  replace ((0 <=? Zlen P) && (Zlen P <=? Zlen P + Zlen T) && (Zlen P + Zlen T <=? Zlen P + Zlen T)) with true by lia.
  replace (Z.min (Zlen P + Zlen T - Zlen P) (Zlen x)) with (Zlen x) by lia.
  rewrite !to_nat_Zlen, firstn_len_app, firstn_all, skipn_len_app. reflexivity.
Qed.

Fixpoint mkviews (base : Z) (xs : list (list N)) : list (Z * Z) :=
  match xs with
  | [] => []
  | x :: r => (base, base + Zlen x) :: mkviews (base + Zlen x) r
  end.

(* one copy loop: W is what has been written so far, T the rest of psData *)
Lemma repack_loop_spec : forall xs W T views, sum_len xs <= Zlen T ->
  exists T', Zlen T' = Zlen T - sum_len xs /\
  hevc_repack_loop (W ++ T) (Zlen W) xs views
  = Ok ((W ++ concat xs) ++ T', Zlen (W ++ concat xs), rev views ++ mkviews (Zlen W) xs).
Proof.
  induction xs as [|x r IH]; intros W T views Hs.
  - exists T. cbn [hevc_repack_loop concat sum_len fold_right mkviews]. rewrite !app_nil_r. split; [lia|reflexivity].
  - rewrite sum_len_cons in Hs. pose proof (sum_len_nonneg r). pose proof (Zlen_nonneg x).
    destruct (IH (W ++ x) (skipn (length x) T) ((Zlen W, Zlen (W ++ x)) :: views)) as (T' & HT' & E).
    { rewrite Zlen_skipn. unfold Zlen in *. lia. }
    exists T'. split; [rewrite HT', Zlen_skipn, sum_len_cons; unfold Zlen in *; lia|].
    cbn [hevc_repack_loop]. rewrite copy_tail by lia. cbn [rbind]. rewrite slice_mid. cbn [rbind].
    rewrite app_assoc, <- (Zlen_app W x), E. cbn [concat mkviews rev]. rewrite <- !app_assoc, !Zlen_app. reflexivity.
Qed.

Lemma views_spec : forall xs W R final, final = W ++ concat xs ++ R ->
  hevc_views final (mkviews (Zlen W) xs) = Ok xs.
Proof.
  induction xs as [|x r IH]; intros W R final ->; [reflexivity|].
  cbn [mkviews hevc_views concat]. rewrite <- app_assoc, slice_mid. cbn [rbind].
  rewrite <- Zlen_app, (IH (W ++ x) R) by (rewrite <- app_assoc; reflexivity). reflexivity.
Qed.

Lemma Zlen_repeat (b : N) k : Zlen (repeat b k) = Z.of_nat k.
Proof. unfold Zlen. rewrite repeat_length. reflexivity. Qed.

(* with the right totSize the repacked sets are the sets *)
Lemma repack_exact v s p : hevc_repack (v, s, p) (sum3 (v, s, p)) = Ok (v, s, p).
Proof.
  unfold hevc_repack, sum3.
  pose proof (sum_len_nonneg v) as Hv. pose proof (sum_len_nonneg s) as Hs. pose proof (sum_len_nonneg p) as Hp.
  replace (sum_len v + sum_len s + sum_len p <? 0) with false by lia.
  set (T0 := repeat 0%N (Z.to_nat (sum_len v + sum_len s + sum_len p))).
  assert (HT0 : Zlen T0 = sum_len v + sum_len s + sum_len p) by (unfold T0; rewrite Zlen_repeat; lia).
  (* the three loops write concat v, concat s, concat p one behind the other *)
  destruct (repack_loop_spec v [] T0 []) as (T1 & HT1 & E1); [lia|].
  rewrite (E1 : hevc_repack_loop T0 0 v [] = _). cbn [rbind fst snd].
  destruct (repack_loop_spec s ([] ++ concat v) T1 []) as (T2 & HT2 & ->); [lia|]. cbn [rbind fst snd].
  destruct (repack_loop_spec p (([] ++ concat v) ++ concat s) T2 []) as (T3 & HT3 & ->); [lia|].
  cbn [rbind fst snd rev app].
  rewrite (views_spec v [] (concat s ++ concat p ++ T3)), (views_spec s (concat v) (concat p ++ T3)),
    (views_spec p (concat v ++ concat s) T3) by (rewrite <- ?app_assoc; reflexivity).
  reflexivity.
Qed.
