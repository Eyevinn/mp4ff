(* C14HevcProofs.v — the HEVC helpers transcribed from the hevc Go text (C14HevcModel.v):
   1. on EVERY input (any byte string, any fuel) they compute what the shared loop transcriptions of
      C14Model.v instantiated with the HEVC type function compute (so the two hand transcriptions agree);
   2. on samples / streams built from HEVC NAL units with a two-byte header they return the obvious list
      functions of the unit list, the unit type being bits 14..9 of the 16-bit header (C14HevcSpec.v). *)
From V.lib Require Import Base.
From V.c14 Require Import C14Spec C14Model C14HevcSpec C14HevcModel.
From V.c14 Require Import C14WalkProofs C14StreamProofs C14HevcPackProofs.
Local Open Scope Z_scope.

(* hevc_GetNaluType / hevc_IsVideoNaluType / hevc_sc_at are the texts of hevc_type / hevc_is_video / sc_at:
   the loops are compared step by step, the same read on both sides removed by rbind_ext. *)
Lemma rbind_ext {A B} (r : res A) (f g : A -> res B) : (forall x, f x = g x) -> rbind r f = rbind r g.
Proof. intros H. destruct r; cbn [rbind]; [apply H|reflexivity|reflexivity|reflexivity]. Qed.

Lemma rbind_assoc {A B C} (r : res A) (f : A -> res B) (g : B -> res C) :
  rbind (rbind r f) g = rbind r (fun x => rbind (f x) g).
Proof. destruct r; reflexivity. Qed.

Lemma hevc_fnt_loop_eq : forall fuel s len pos acc,
  hevc_fnt_loop fuel s len pos acc = walk_loop hevc_type None fuel s len pos acc.
Proof.
  induction fuel as [|f IH]; intros s len pos acc; [reflexivity|].
  cbn [hevc_fnt_loop walk_loop]. destruct (pos <? len - 4); [|reflexivity].
  apply rbind_ext; intros lf. apply rbind_ext; intros h.
  destruct (be32_dec lf >? len - (pos + 4)); [reflexivity|apply IH].
Qed.

Lemma hevc_fntv_loop_eq : forall fuel s len pos acc,
  hevc_fntv_loop fuel s len pos acc = walk_loop hevc_type (Some hevc_is_video) fuel s len pos acc.
Proof.
  induction fuel as [|f IH]; intros s len pos acc; [reflexivity|].
  cbn [hevc_fntv_loop walk_loop]. destruct (pos <? len - 4); [|reflexivity].
  apply rbind_ext; intros lf. apply rbind_ext; intros h.
  change (hevc_IsVideoNaluType (hevc_GetNaluType h)) with (hevc_is_video (hevc_type h)).
  destruct (be32_dec lf >? len - (pos + 4)); [reflexivity|].
  destruct (hevc_is_video (hevc_type h)); [reflexivity|apply IH].
Qed.

Lemma hevc_cnt_loop_eq : forall fuel s want len pos,
  hevc_cnt_loop fuel s want len pos = contains_loop hevc_type want fuel s len pos.
Proof.
  induction fuel as [|f IH]; intros s want len pos; [reflexivity|].
  cbn [hevc_cnt_loop contains_loop]. destruct (pos <? len - 4); [|reflexivity].
  apply rbind_ext; intros lf. apply rbind_ext; intros h.
  change (hevc_GetNaluType h) with (hevc_type h).
  destruct (N.eqb (hevc_type h) want); [reflexivity|].
  destruct (be32_dec lf >? len - (pos + 4)); [reflexivity|apply IH].
Qed.

Lemma hevc_rap_range_eq l : hevc_rap_range l = existsb (fun t => (16 <=? t)%N && (t <=? 23)%N) l.
Proof.
  induction l as [|t r IH]; [reflexivity|]. cbn [hevc_rap_range existsb].
  destruct ((16 <=? t)%N && (t <=? 23)%N); [reflexivity|exact IH].
Qed.

Lemma hevc_idr_range_eq l : hevc_idr_range l = existsb (fun t => (19 <=? t)%N && (t <=? 20)%N) l.
Proof.
  induction l as [|t r IH]; [reflexivity|]. cbn [hevc_idr_range existsb].
  destruct ((19 <=? t)%N && (t <=? 20)%N); [reflexivity|exact IH].
Qed.

Lemma hevc_hps_range_eq : forall l a b c, hevc_hps_range l a b c = hevc_hps_loop l a b c.
Proof.
  induction l as [|t r IH]; intros a b c; [reflexivity|].
  cbn [hevc_hps_range hevc_hps_loop].
  destruct (N.eqb_spec t 32) as [->|_]; [cbn [N.eqb Pos.eqb]; destruct (true && b && c); [reflexivity|apply IH]|].
  destruct (N.eqb_spec t 33) as [->|_]; [cbn [N.eqb Pos.eqb]; destruct (a && true && c); [reflexivity|apply IH]|].
  destruct (N.eqb t 34); [destruct (a && b && true)|destruct (a && b && c)]; reflexivity || apply IH.
Qed.

(* the type switch of the own transcription against the class of the shared one: destructing the three
   type tests and the video test decides the class *)
Lemma hevc_gps_loop_eq : forall fuel s len pos v sp p,
  hevc_gps_loop fuel s len pos v sp p = gps_loop hevc_type hevc_ps_class fuel s len pos (v, sp, p).
Proof.
  induction fuel as [|f IH]; intros s len pos v sp p; [reflexivity|].
  cbn [hevc_gps_loop gps_loop]. destruct (pos <? len - 4); [|reflexivity].
  apply rbind_ext; intros lf. destruct (be32_dec lf >? len - (pos + 4)); [reflexivity|].
  apply rbind_ext; intros h. change (hevc_GetNaluType h) with (hevc_type h).
  unfold hevc_ps_class, hevc_is_video.
  destruct (N.eqb (hevc_type h) 32); [apply rbind_ext; intros x; apply IH|].
  destruct (N.eqb (hevc_type h) 33); [apply rbind_ext; intros x; apply IH|].
  destruct (N.eqb (hevc_type h) 34); [apply rbind_ext; intros x; apply IH|].
  destruct (hevc_type h <=? 31)%N; [reflexivity|apply IH].
Qed.

Lemma hevc_trim_loop_eq : forall fuel d start j e, hevc_trim_loop fuel d start j e = trim_loop fuel d start j e.
Proof.
  induction fuel as [|f IH]; intros d start j e; [reflexivity|].
  cbn [hevc_trim_loop trim_loop]. destruct (j >? start); [|reflexivity].
  apply rbind_ext; intros b. destruct (is0 b); [apply IH|reflexivity].
Qed.

Lemma hevc_nalu_end_eq d start i : hevc_nalu_end d start i = trim_end d start i.
Proof. apply hevc_trim_loop_eq. Qed.

(* the scanning loop of GetParameterSetsFromByteStream: the sets are those of the shared loop, and totSize
   grows by exactly the lengths of the sets appended *)
Definition attach (tot0 : Z) (r : (Z * ps3) + ps3) : (Z * hevc_ps * Z) + (hevc_ps * Z) :=
  match r with
  | inl (c, a) => inl (c, a, tot0 + sum3 a)
  | inr a => inr (a, tot0 + sum3 a)
  end.

Lemma hevc_gpsb_loop_eq d tot0 : forall fuel n i cur acc,
  hevc_gpsb_loop fuel d n i cur acc (tot0 + sum3 acc) =
  (do r <- bs_loop (gpsb_body hevc_type hevc_ps_class 32 d) fuel d n i (cur, acc); Ok (attach tot0 r)).
Proof.
  induction fuel as [|f IH]; intros n i cur acc; [reflexivity|].
  cbn [hevc_gpsb_loop bs_loop].
  destruct (i <? n - 3); [|reflexivity].
  change (hevc_sc_at d i) with (sc_at d i). rewrite rbind_assoc. apply rbind_ext; intros m.
  destruct m; [|apply IH].
  (* behind the previous unit both sides look at the next header in the same way *)
  assert (Hnext : forall acc' : hevc_ps,
    (do h0 <- getb d (i + 3);
     if (hevc_GetNaluType h0 <? 32)%N then Ok (inr (acc', tot0 + sum3 acc'))
     else hevc_gpsb_loop f d n (i + 1) (i + 3) acc' (tot0 + sum3 acc'))
    = (do r <- (do r0 <- (do h0 <- getb d (i + 3);
                          if (hevc_type h0 <? 32)%N then Ok (inr acc') else Ok (inl (i + 3, acc')));
                match r0 with
                | inl st' => bs_loop (gpsb_body hevc_type hevc_ps_class 32 d) f d n (i + 1) st'
                | inr x => Ok (inr x)
                end);
       Ok (attach tot0 r))).
  { intros acc'. rewrite !rbind_assoc. apply rbind_ext; intros h0.
    change (hevc_GetNaluType h0) with (hevc_type h0).
    destruct (hevc_type h0 <? 32)%N; cbn [rbind attach]; [reflexivity|apply IH]. }
  destruct acc as [[v sp] p]. unfold gpsb_body, hevc_ps_class, hevc_is_video.
  destruct (cur >? 0); [|apply Hnext].
  rewrite hevc_nalu_end_eq. destruct (trim_end d cur i) as [e| | |]; cbn [rbind]; try reflexivity.
  destruct (getb d cur) as [h| | |]; cbn [rbind]; try reflexivity.
  change (hevc_GetNaluType h) with (hevc_type h).
  destruct (N.eqb (hevc_type h) 32); [|destruct (N.eqb (hevc_type h) 33); [|destruct (N.eqb (hevc_type h) 34)]].
  4: destruct (hevc_type h <=? 31)%N; apply Hnext.
  all: cbn [N.leb N.compare Pos.compare Pos.compare_cont];
    destruct (slice d cur e) as [x| | |] eqn:Hsl; cbn [rbind fst snd]; try reflexivity.
  - rewrite (tot_size_step _ _ 0 _ _ _ _ Hsl). apply Hnext.
  - rewrite (tot_size_step _ _ 1 _ _ _ _ Hsl). apply Hnext.
  - rewrite (tot_size_step _ _ 2 _ _ _ _ Hsl). apply Hnext.
Qed.

(* the part after the loop: last unit, then the order reversal; totSize stays the total length *)
Lemma hevc_gpsb_finish_eq d tot0 r :
  hevc_gpsb_finish d (attach tot0 r) =
  (do a <- gpsb_finish hevc_type hevc_ps_class d r; Ok (a, tot0 + sum3 a)).
Proof.
  destruct r as [[cur [[v sp] p]]|[[v sp] p]]; cbn [attach hevc_gpsb_finish gpsb_finish rbind].
  2:{ rewrite sum3_ps_rev. reflexivity. }
  destruct (cur >? 0); cbn [rbind]; [|rewrite sum3_ps_rev; reflexivity].
  destruct (getb d cur) as [h| | |]; cbn [rbind]; try reflexivity.
  change (hevc_GetNaluType h) with (hevc_type h). unfold hevc_ps_class, hevc_is_video.
  destruct (N.eqb (hevc_type h) 32); [|destruct (N.eqb (hevc_type h) 33); [|destruct (N.eqb (hevc_type h) 34)]].
  4: destruct (hevc_type h <=? 31)%N; cbn [N.leb N.compare Pos.compare Pos.compare_cont rbind];
    rewrite sum3_ps_rev; reflexivity.
  all: cbn [N.leb N.compare Pos.compare Pos.compare_cont];
    destruct (slice d cur (Zlen d)) as [x| | |] eqn:Hsl; cbn [rbind]; try reflexivity; rewrite sum3_ps_rev.
  - rewrite <- (tot_size_step _ _ 0 _ _ _ _ Hsl). reflexivity.
  - rewrite <- (tot_size_step _ _ 1 _ _ _ _ Hsl). reflexivity.
  - rewrite <- (tot_size_step _ _ 2 _ _ _ _ Hsl). reflexivity.
Qed.

Lemma hevc_enot_loop_eq want stop d : forall fuel n i cur acc, n = Zlen d ->
  hevc_enot_loop fuel want stop d n i cur acc = bs_loop (enot_body hevc_type 32 want stop d) fuel d n i (cur, acc).
Proof.
  induction fuel as [|f IH]; intros n i cur acc Hn; [reflexivity|].
  cbn [hevc_enot_loop bs_loop].
  destruct (i <? n - 3); [|reflexivity].
  change (hevc_sc_at d i) with (sc_at d i). apply rbind_ext; intros m.
  destruct m; [|apply IH; exact Hn].
  (* the same collection of the previous unit, then the same test of the next header *)
  unfold enot_body. subst n. rewrite hevc_nalu_end_eq, !rbind_assoc.
  apply rbind_ext; intros acc'. rewrite !rbind_assoc. apply rbind_ext; intros ret.
  destruct ret; [reflexivity|apply IH; reflexivity].
Qed.

(* the nine entry points: own transcription = shared-loop instantiation, on every input *)
Lemma hevc_FindNaluTypes_eq s : hevc_FindNaluTypes s = hevc_find_nalu_types s.
Proof.
  unfold hevc_FindNaluTypes, hevc_find_nalu_types. destruct (Zlen s <? 4); [reflexivity|apply hevc_fnt_loop_eq].
Qed.

Lemma hevc_FindNaluTypesUpToFirstVideoNalu_eq s :
  hevc_FindNaluTypesUpToFirstVideoNalu s = hevc_find_nalu_types_up_to_video s.
Proof.
  unfold hevc_FindNaluTypesUpToFirstVideoNalu, hevc_find_nalu_types_up_to_video.
  destruct (Zlen s <? 4); [reflexivity|apply hevc_fntv_loop_eq].
Qed.

Lemma hevc_ContainsNaluType_eq s want : hevc_ContainsNaluType s want = hevc_contains_nalu_type s want.
Proof.
  unfold hevc_ContainsNaluType, hevc_contains_nalu_type. destruct (Zlen s <? 4); [reflexivity|apply hevc_cnt_loop_eq].
Qed.

Lemma hevc_IsRAPSample_eq s : hevc_IsRAPSample s = hevc_is_rap_sample s.
Proof.
  unfold hevc_IsRAPSample, hevc_is_rap_sample. rewrite hevc_FindNaluTypes_eq.
  apply rbind_ext; intros l. rewrite hevc_rap_range_eq. reflexivity.
Qed.

Lemma hevc_IsIDRSample_eq s : hevc_IsIDRSample s = hevc_is_idr_sample s.
Proof.
  unfold hevc_IsIDRSample, hevc_is_idr_sample. rewrite hevc_FindNaluTypes_eq.
  apply rbind_ext; intros l. rewrite hevc_idr_range_eq. reflexivity.
Qed.

Lemma hevc_HasParameterSets_eq s : hevc_HasParameterSets s = hevc_has_parameter_sets s.
Proof.
  unfold hevc_HasParameterSets, hevc_has_parameter_sets. rewrite hevc_FindNaluTypesUpToFirstVideoNalu_eq.
  apply rbind_ext; intros l. rewrite hevc_hps_range_eq. reflexivity.
Qed.

Lemma hevc_GetParameterSets_eq s : hevc_GetParameterSets s = hevc_get_parameter_sets s.
Proof. apply hevc_gps_loop_eq. Qed.

(* scanning loop, last unit, repacking into psData -- equal to the shared transcription, which returns the
   sub-slices of data directly *)
Lemma hevc_gpsb_eq s : hevc_GetParameterSetsFromByteStream s = hevc_get_parameter_sets_from_byte_stream s.
Proof.
  unfold hevc_GetParameterSetsFromByteStream, hevc_get_parameter_sets_from_byte_stream,
    get_parameter_sets_from_byte_stream.
  pose proof (hevc_gpsb_loop_eq s 0 (S (length s)) (Zlen s) 0 (-1) ([], [], [])) as HL.
  change (0 + sum3 ([], [], [])) with 0 in HL. rewrite HL, rbind_assoc. apply rbind_ext. intros r. cbn [rbind].
  rewrite hevc_gpsb_finish_eq.
  destruct (gpsb_finish hevc_type hevc_ps_class s r) as [[[v sp] p]| | |]; cbn [rbind fst snd]; try reflexivity.
  apply repack_exact.
Qed.

Lemma hevc_enot_eq want s stop :
  hevc_ExtractNalusOfTypeFromByteStream want s stop = hevc_extract_nalus_of_type want stop s.
Proof.
  unfold hevc_ExtractNalusOfTypeFromByteStream, hevc_extract_nalus_of_type, extract_nalus_of_type.
  rewrite hevc_enot_loop_eq by reflexivity. apply rbind_ext. intros [[cur acc]|acc]; reflexivity.
Qed.

Lemma hevc_type_two_bytes b0 b1 : (b0 < 256)%N -> (b1 < 256)%N ->
  (((b0 * 256 + b1) / 512) mod 64)%N = hevc_type b0.
Proof.
  intros H0 H1. unfold hevc_type. rewrite shiftr_div. change 63%N with (mask 6). rewrite mask_mod.
  change (2 ^ 1)%N with 2%N. change (2 ^ 6)%N with 64%N.
  f_equal. lia.
Qed.

(* the type field of the 16-bit header is what GetNaluType computes from the FIRST header byte alone *)
Lemma hevc_unit_type_first_byte n : hevc_hdr_ok n = true -> hevc_unit_type n = utype hevc_type n.
Proof.
  unfold hevc_hdr_ok. intros H. apply andb_prop in H. destruct H as [Hl Hb].
  destruct n as [|b0 [|b1 r]]; [discriminate|discriminate|].
  rewrite !bytes_ok_cons in Hb. apply andb_prop in Hb. destruct Hb as [Hb0 Hb]. apply andb_prop in Hb. destruct Hb as [Hb1 _].
  unfold byte_ok in Hb0, Hb1.
  unfold hevc_unit_type, hevc_hdr16, utype, hd0. cbn [hd].
  apply hevc_type_two_bytes; lia.
Qed.

Definition hdrs_ok (ns : list (list N)) : bool := forallb hevc_hdr_ok ns.

Lemma hdrs_ok_cons n t : hdrs_ok (n :: t) = true -> hevc_hdr_ok n = true /\ hdrs_ok t = true.
Proof. unfold hdrs_ok. cbn [forallb]. intros H. apply andb_prop in H. exact H. Qed.

Lemma hevc_units_hdrs_ok ns : hevc_units ns = true -> hdrs_ok ns = true.
Proof.
  unfold hevc_units, hdrs_ok. intros H. rewrite forallb_forall in *. intros n Hn. specialize (H n Hn).
  unfold hevc_unit in H. apply andb_prop in H. exact (proj1 H).
Qed.

Lemma hevc_units_walkable ns : hevc_units ns = true -> walkable ns = true.
Proof.
  unfold hevc_units, walkable. intros H. rewrite forallb_forall in *. intros n Hn. specialize (H n Hn).
  unfold hevc_unit, hevc_hdr_ok in H. apply andb_prop in H. destruct H as [H Hf]. apply andb_prop in H. destruct H as [Hl _].
  rewrite Hf. destruct n; [discriminate|reflexivity].
Qed.

Lemma u_types_bridge ns : hdrs_ok ns = true -> u_types hevc_unit_type ns = map (utype hevc_type) ns.
Proof.
  induction ns as [|n t IH]; intros H; [reflexivity|].
  destruct (hdrs_ok_cons n t H) as [Hn Ht]. unfold u_types in *. cbn [map].
  rewrite (hevc_unit_type_first_byte n Hn), (IH Ht). reflexivity.
Qed.

Lemma u_types_upto_bridge ns : hdrs_ok ns = true ->
  u_types_upto hevc_unit_type hevc_vcl ns = types_upto hevc_type hevc_is_video ns.
Proof.
  induction ns as [|n t IH]; intros H; [reflexivity|].
  destruct (hdrs_ok_cons n t H) as [Hn Ht]. cbn [u_types_upto types_upto].
  rewrite (hevc_unit_type_first_byte n Hn), (IH Ht). reflexivity.
Qed.

Lemma u_before_video_bridge ns : hdrs_ok ns = true ->
  u_before_video hevc_unit_type hevc_vcl ns = before_video hevc_type hevc_is_video ns.
Proof.
  induction ns as [|n t IH]; intros H; [reflexivity|].
  destruct (hdrs_ok_cons n t H) as [Hn Ht]. cbn [u_before_video before_video].
  rewrite (hevc_unit_type_first_byte n Hn), (IH Ht). reflexivity.
Qed.

Lemma u_of_type_bridge want ns : hdrs_ok ns = true ->
  u_of_type hevc_unit_type want ns = of_type hevc_type want ns.
Proof.
  induction ns as [|n t IH]; intros H; [reflexivity|].
  destruct (hdrs_ok_cons n t H) as [Hn Ht]. unfold u_of_type, of_type in *. cbn [filter].
  rewrite (hevc_unit_type_first_byte n Hn), (IH Ht). reflexivity.
Qed.

Lemma u_has_bridge (p : N -> bool) ns : hdrs_ok ns = true ->
  u_has hevc_unit_type p ns = existsb p (map (utype hevc_type) ns).
Proof.
  induction ns as [|n t IH]; intros H; [reflexivity|].
  destruct (hdrs_ok_cons n t H) as [Hn Ht]. unfold u_has in *. cbn [existsb map].
  rewrite (hevc_unit_type_first_byte n Hn), (IH Ht). reflexivity.
Qed.

Lemma has_type_existsb ty want ns : has_type ty want ns = existsb (fun t => N.eqb t want) (map (utype ty) ns).
Proof. unfold has_type. induction ns as [|n t IH]; [reflexivity|]. cbn [existsb map]. rewrite IH. reflexivity. Qed.

Lemma before_video_hdrs_ok ns : hdrs_ok ns = true -> hdrs_ok (before_video hevc_type hevc_is_video ns) = true.
Proof.
  induction ns as [|n t IH]; intros H; [reflexivity|].
  destruct (hdrs_ok_cons n t H) as [Hn Ht]. cbn [before_video].
  destruct (hevc_is_video (utype hevc_type n)); [reflexivity|].
  unfold hdrs_ok. cbn [forallb]. rewrite Hn. exact (IH Ht).
Qed.

(* HEVC helpers on a sample built from units with a two-byte NAL unit header *)
Lemma helpers_hevc_own_sample ns : hevc_units ns = true ->
  let ut := hevc_unit_type in
  hevc_FindNaluTypes (sample ns) = Ok (u_types ut ns) /\
  hevc_FindNaluTypesUpToFirstVideoNalu (sample ns) = Ok (u_types_upto ut hevc_vcl ns) /\
  (forall want, hevc_ContainsNaluType (sample ns) want = Ok (u_has ut (fun t => N.eqb t want) ns)) /\
  hevc_IsRAPSample (sample ns) = Ok (u_has ut hevc_irap ns) /\
  hevc_IsIDRSample (sample ns) = Ok (u_has ut hevc_idr ns) /\
  hevc_HasParameterSets (sample ns) =
    Ok (existsb (fun t => N.eqb t 32) (u_types_upto ut hevc_vcl ns)
        && existsb (fun t => N.eqb t 33) (u_types_upto ut hevc_vcl ns)
        && existsb (fun t => N.eqb t 34) (u_types_upto ut hevc_vcl ns)) /\
  hevc_GetParameterSets (sample ns) =
    Ok (u_of_type ut 32 (u_before_video ut hevc_vcl ns),
        u_of_type ut 33 (u_before_video ut hevc_vcl ns),
        u_of_type ut 34 (u_before_video ut hevc_vcl ns)).
Proof.
  intros Hu ut. subst ut.
  pose proof (hevc_units_walkable ns Hu) as Hw. pose proof (hevc_units_hdrs_ok ns Hu) as Hh.
  pose proof (before_video_hdrs_ok ns Hh) as Hbv.
  split; [rewrite hevc_FindNaluTypes_eq, u_types_bridge by exact Hh; exact (find_types_gen hevc_type None ns Hw)|].
  split; [rewrite hevc_FindNaluTypesUpToFirstVideoNalu_eq, u_types_upto_bridge by exact Hh;
          exact (find_types_gen hevc_type (Some hevc_is_video) ns Hw)|].
  split.
  { intros want. rewrite hevc_ContainsNaluType_eq, hevc_contains_top, u_has_bridge, has_type_existsb by assumption.
    reflexivity. }
  split; [rewrite hevc_IsRAPSample_eq, u_has_bridge by exact Hh; exact (hevc_types_exist_sample _ ns Hw)|].
  split; [rewrite hevc_IsIDRSample_eq, u_has_bridge by exact Hh; exact (hevc_types_exist_sample _ ns Hw)|].
  split; [rewrite hevc_HasParameterSets_eq, hevc_hps_sample, u_types_upto_bridge by assumption; reflexivity|].
  rewrite hevc_GetParameterSets_eq, hevc_gps_sample, u_before_video_bridge by assumption.
  rewrite !u_of_type_bridge by exact Hbv. reflexivity.
Qed.

Lemma hevc_stream_units_parts us : hevc_stream_units us = true ->
  wf_units us = true /\ hdrs_ok (map snd us) = true.
Proof.
  unfold hevc_stream_units, wf_units, hdrs_ok. induction us as [|u t IH]; intros H; [split; reflexivity|].
  cbn [forallb map] in *. apply andb_prop in H. destruct H as [Hu Ht]. apply andb_prop in Hu. destruct Hu as [Hh Hw].
  destruct (IH Ht) as [I1 I2]. rewrite Hh, Hw, I1, I2. split; reflexivity.
Qed.

(* HEVC byte-stream helpers on an Annex B stream of units with a two-byte header, any 3/4-byte start-code mix *)
Lemma hevc_own_gpsb_stream us : hevc_stream_units us = true ->
  let ut := hevc_unit_type in
  hevc_GetParameterSetsFromByteStream (stream us) =
    Ok (u_of_type ut 32 (u_before_video ut hevc_vcl (map snd us)),
        u_of_type ut 33 (u_before_video ut hevc_vcl (map snd us)),
        u_of_type ut 34 (u_before_video ut hevc_vcl (map snd us))).
Proof.
  intros Hu ut. subst ut. destruct (hevc_stream_units_parts us Hu) as [Hw Hh].
  rewrite hevc_gpsb_eq, gpsb_stream_hevc, u_before_video_bridge by assumption.
  rewrite !u_of_type_bridge by (apply before_video_hdrs_ok, Hh). reflexivity.
Qed.

Lemma hevc_own_enot_stream us want stop : hevc_stream_units us = true ->
  let ut := hevc_unit_type in
  hevc_ExtractNalusOfTypeFromByteStream want (stream us) stop =
    Ok (u_of_type ut want (if stop then u_before_video ut hevc_vcl (map snd us) else map snd us)).
Proof.
  intros Hu ut. subst ut. destruct (hevc_stream_units_parts us Hu) as [Hw Hh].
  rewrite hevc_enot_eq. unfold hevc_extract_nalus_of_type.
  rewrite (enot_stream_isv hevc_type 32 hevc_is_video hevc_lt32), u_before_video_bridge by assumption.
  destruct stop; rewrite u_of_type_bridge by (try apply before_video_hdrs_ok; exact Hh); reflexivity.
Qed.
