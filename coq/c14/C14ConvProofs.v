(* C14ConvProofs.v — on every stream built from well-formed units (any 3/4-byte start-code mix) the
   scanner finds exactly the generating start codes; ConvertByteStreamToNaluSample yields the
   length-prefixed unit list (in-place and copying branch); ConvertSampleToByteStream yields the
   units behind 4-byte start codes; round trip. *)
From V.lib Require Import Base.
From V.c14 Require Import C14Spec C14Model C14ScanProofs.
Local Open Scope Z_scope.

Lemma nscan_skip1 prev pos b t : is0 b = false -> nscan prev pos (b :: t) = nscan false (pos + 1) t.
Proof.
  intros H. cbn [nscan]. rewrite H. destruct t as [|? [|? [|? ?]]]; reflexivity.
Qed.

Lemma nscan_skip2 prev pos b c t : is0 c = false ->
  nscan prev pos (b :: c :: t) = nscan (is0 b) (pos + 1) (c :: t).
Proof.
  intros H. cbn [nscan]. rewrite H, andb_false_r. destruct t as [|? [|? ?]]; reflexivity.
Qed.

Lemma nscan_skip3 prev pos b c d t : is0 b && is0 c && is1 d = false ->
  nscan prev pos (b :: c :: d :: t) = nscan (is0 b) (pos + 1) (c :: d :: t).
Proof.
  intros H. cbn [nscan]. rewrite H. destruct t as [|? ?]; reflexivity.
Qed.

Lemma nscan_hit prev pos x t :
  nscan prev pos (0 :: 0 :: 1 :: x :: t)%N =
  (if prev then 4 else 3, pos + 3) :: nscan true (pos + 1) (0 :: 1 :: x :: t)%N.
Proof. reflexivity. Qed.

Lemma last_cons2 {A} (a b : A) t d : last (a :: b :: t) d = last (b :: t) d.
Proof. reflexivity. Qed.

(* no start code begins inside a well-formed unit, whatever follows it *)
Lemma nscan_unit : forall n prev pos rest,
  n <> [] -> last_nonzero n = true -> no_sc3 n = true ->
  nscan prev pos (n ++ rest) = nscan false (pos + Zlen n) rest.
Proof.
  induction n as [|b n' IH]; intros prev pos rest Hne Hl Hs; [congruence|].
  destruct n' as [|c n''].
  - (* last byte *)
    unfold last_nonzero in Hl. cbn [last] in Hl. apply negb_true_iff in Hl.
    cbn [app]. rewrite nscan_skip1 by exact Hl. reflexivity.
  - assert (Hl' : last_nonzero (c :: n'') = true) by exact Hl.
    assert (Hs' : no_sc3 (c :: n'') = true).
    { cbn [no_sc3] in Hs. destruct n'' as [|d n3]; [reflexivity|].
      apply andb_prop in Hs. exact (proj2 Hs). }
    rewrite Zlen_cons. replace (pos + (1 + Zlen (c :: n''))) with (pos + 1 + Zlen (c :: n'')) by lia.
    rewrite <- (IH (is0 b) (pos + 1) rest) by (try assumption; discriminate).
    cbn [app]. destruct n'' as [|d n3].
    + (* c is the last byte: non-zero *)
      unfold last_nonzero in Hl. cbn [last] in Hl. apply negb_true_iff in Hl.
      cbn [app]. apply nscan_skip2. exact Hl.
    + cbn [app]. apply nscan_skip3.
      cbn [no_sc3] in Hs. apply andb_prop in Hs. apply negb_true_iff. exact (proj1 Hs).
Qed.

Lemma wf_nalu_parts n : wf_nalu n = true ->
  n <> [] /\ last_nonzero n = true /\ no_sc3 n = true /\ bytes_ok n = true.
Proof.
  unfold wf_nalu. intros H. repeat (apply andb_prop in H; destruct H as [H ?]).
  repeat split; try assumption. destruct n; [discriminate|discriminate].
Qed.

(* a start code in front of a well-formed unit: one hit, nothing more up to the end of the unit *)
Lemma nscan_sc prev pos n rest :
  n <> [] -> last_nonzero n = true -> no_sc3 n = true ->
  nscan prev pos (0 :: 0 :: 1 :: n ++ rest)%N
  = (if prev then 4 else 3, pos + 3) :: nscan false (pos + 3 + Zlen n) rest.
Proof.
  intros Hne Hl Hs. destruct n as [|x n']; [congruence|]. cbn [app].
  rewrite nscan_hit, nscan_skip2, nscan_skip1 by reflexivity.
  change (x :: n' ++ rest) with ((x :: n') ++ rest). rewrite nscan_unit by assumption. do 2 f_equal. lia.
Qed.

(* the scan of a well-formed stream is the generating start-code list *)
Lemma nscan_stream : forall us base,
  wf_units us = true -> nscan false base (stream us) = expected_scs base us.
Proof.
  induction us as [|[f n] t IH]; intros base Hwf; [reflexivity|].
  cbn [wf_units forallb snd] in Hwf. apply andb_prop in Hwf. destruct Hwf as [Hn Ht].
  destruct (wf_nalu_parts n Hn) as [Hne [Hl [Hs _]]].
  cbn [stream expected_scs]. rewrite <- (IH _ Ht).
  destruct f; cbn [start_code sclen app].
  - (* 00 00 00 01: no hit at the first zero, which then is the zero in front of 00 00 01 *)
    rewrite nscan_skip3 by reflexivity. change (is0 0%N) with true.
    rewrite nscan_sc by assumption. do 2 f_equal; lia.
  - rewrite nscan_sc by assumption. do 2 f_equal; lia.
Qed.

Lemma bytes_ok_stream us : wf_units us = true -> bytes_ok (stream us) = true.
Proof.
  induction us as [|[f n] t IH]; intros Hwf; [reflexivity|].
  cbn [wf_units forallb snd] in Hwf. apply andb_prop in Hwf. destruct Hwf as [Hn Ht].
  destruct (wf_nalu_parts n Hn) as [_ [_ [_ Hb]]].
  cbn [stream]. rewrite !bytes_ok_app, Hb, (IH Ht). destruct f; reflexivity.
Qed.

Lemma scan_stream us : wf_units us = true ->
  get_start_code_positions (stream us) = Ok (expected_scs 0 us, min_sc_len (expected_scs 0 us)).
Proof.
  intros Hwf. rewrite scanner_eq_naive by (apply bytes_ok_stream; exact Hwf).
  rewrite <- nscan_naive, nscan_stream by exact Hwf. reflexivity.
Qed.

Lemma firstn_len_app {A} (a b : list A) : firstn (length a) (a ++ b) = a.
Proof. induction a as [|x a IH]; [destruct b; reflexivity|]. cbn [length firstn app]. f_equal. exact IH. Qed.

Lemma skipn_len_app {A} (a b : list A) k : skipn (length a + k) (a ++ b) = skipn k b.
Proof. induction a as [|x a IH]; [reflexivity|]. cbn [length plus skipn app]. exact IH. Qed.

Lemma skipn_len_app0 {A} (a b : list A) : skipn (length a) (a ++ b) = b.
Proof. rewrite <- (Nat.add_0_r (length a)), skipn_len_app. reflexivity. Qed.

Lemma to_nat_Zlen {A} (l : list A) : Z.to_nat (Zlen l) = length l.
Proof. unfold Zlen. lia. Qed.

Lemma slice_mid (P X R : list N) :
  slice (P ++ X ++ R) (Zlen P) (Zlen P + Zlen X) = Ok X.
Proof.
  unfold slice. pose proof (Zlen_nonneg P). pose proof (Zlen_nonneg X). pose proof (Zlen_nonneg R).
  rewrite !Zlen_app.
  replace ((0 <=? Zlen P) && (Zlen P <=? Zlen P + Zlen X) && (Zlen P + Zlen X <=? Zlen P + (Zlen X + Zlen R)))
    with true by lia.
  replace (Zlen P + Zlen X - Zlen P) with (Zlen X) by lia.
  rewrite !to_nat_Zlen, skipn_len_app0, firstn_len_app. reflexivity.
Qed.

Lemma copy_into_mid (P X Y R : list N) : length X = length Y ->
  copy_into (P ++ X ++ R) (Zlen P) (Zlen P + Zlen X) Y = Ok (P ++ Y ++ R).
Proof.
  intros Hxy. unfold copy_into.
  pose proof (Zlen_nonneg P). pose proof (Zlen_nonneg X). pose proof (Zlen_nonneg R).
  rewrite !Zlen_app.
  replace ((0 <=? Zlen P) && (Zlen P <=? Zlen P + Zlen X) && (Zlen P + Zlen X <=? Zlen P + (Zlen X + Zlen R)))
    with true by lia.
  replace (Zlen P + Zlen X - Zlen P) with (Zlen X) by lia.
  assert (HZ : Zlen X = Zlen Y) by (unfold Zlen; lia).
  rewrite HZ, Z.min_id, !to_nat_Zlen.
  rewrite firstn_len_app. rewrite firstn_all.
  rewrite skipn_len_app. rewrite <- Hxy, skipn_len_app0. reflexivity.
Qed.

Lemma be32_dec_be32 k : (k < 4294967296)%N -> be32_dec (be32 k) = Z.of_N k.
Proof.
  intros Hk. unfold be32_dec, be32. cbn [fold_left]. f_equal. lia.
Qed.

Lemma put_be32_len n : fits32 n = true -> put_be32 (Zlen n) = be32 (lenN n).
Proof.
  unfold fits32, put_be32, u32z, lenN, Zlen. intros H. f_equal.
  rewrite Z.mod_small by lia. lia.
Qed.

Lemma be32_dec_len n : fits32 n = true -> be32_dec (be32 (lenN n)) = Zlen n.
Proof.
  intros Hfit. rewrite be32_dec_be32 by (unfold fits32, Zlen in Hfit; unfold lenN; lia). unfold lenN, Zlen. lia.
Qed.

Lemma length_be32 k : length (be32 k) = 4%nat.
Proof. reflexivity. Qed.

Lemma Zlen_be32 k : Zlen (be32 k) = 4.
Proof. reflexivity. Qed.

Lemma Zlen_nil : Zlen (@nil N) = 0.
Proof. reflexivity. Qed.

#[global] Hint Rewrite @Zlen_app @Zlen_cons Zlen_be32 Zlen_nil : zlen.

(* ConvertByteStreamToNaluSample *)
Definition units_fit (us : list (bool * list N)) : bool := forallb (fun u => fits32 (snd u)) us.
Definition all_four (us : list (bool * list N)) : bool := forallb fst us.

Lemma sample_app_unit P n t : (P ++ be32 (lenN n) ++ n) ++ sample t = P ++ sample (n :: t).
Proof. cbn [sample]. rewrite <- !app_assoc. reflexivity. Qed.

(* in-place branch: all start codes have 4 bytes *)
Lemma inplace_spec : forall us P L,
  all_four us = true -> units_fit us = true -> L = Zlen P + Zlen (stream us) ->
  inplace_loop (P ++ stream us) L (expected_scs (Zlen P) us) = Ok (P ++ sample (map snd us)).
Proof.
  induction us as [|[f n] t IH]; intros P L H4 Hfit HL; [reflexivity|].
  cbn [all_four forallb fst] in H4. apply andb_prop in H4. destruct H4 as [Hf H4]. subst f.
  cbn [units_fit forallb snd] in Hfit. apply andb_prop in Hfit. destruct Hfit as [Hn Hfit].
  cbn [expected_scs inplace_loop sclen snd fst stream start_code map].
  set (nl := match expected_scs (Zlen P + 4 + Zlen n) t with
             | nx :: _ => snd nx - (Zlen P + 4) - 4
             | [] => L - (Zlen P + 4)
             end).
  assert (Hnl : nl = Zlen n).
  { unfold nl. destruct t as [|[f' n'] t'].
    - cbn [expected_scs]. subst L. cbn [stream start_code]. autorewrite with zlen. lia.
    - cbn [all_four forallb fst] in H4. apply andb_prop in H4. destruct H4 as [Hf' _]. subst f'.
      cbn [expected_scs sclen snd]. lia. }
  rewrite Hnl, put_be32_len by exact Hn.
  replace (Zlen P + 4 - 4) with (Zlen P) by lia.
  change ([0; 0; 0; 1]%N ++ n ++ stream t) with ([0; 0; 0; 1]%N ++ (n ++ stream t)).
  replace (Zlen P + 4) with (Zlen P + Zlen [0; 0; 0; 1]%N) by reflexivity.
  rewrite copy_into_mid by reflexivity. cbn [rbind].
  replace (P ++ be32 (lenN n) ++ n ++ stream t) with ((P ++ be32 (lenN n) ++ n) ++ stream t)
    by (rewrite <- !app_assoc; reflexivity).
  replace (Zlen P + Zlen [0; 0; 0; 1]%N + Zlen n) with (Zlen (P ++ be32 (lenN n) ++ n))
    by (autorewrite with zlen; lia).
  rewrite IH; [rewrite sample_app_unit; reflexivity|exact H4|exact Hfit|].
  subst L. cbn [stream start_code]. autorewrite with zlen. lia.
Qed.

(* copying branch: any mix *)
Lemma copy_spec : forall us P l,
  units_fit us = true -> l = P ++ stream us ->
  copy_loop l (Zlen l) (expected_scs (Zlen P) us) = Ok (sample (map snd us)).
Proof.
  induction us as [|[f n] t IH]; intros P l Hfit Hl; [reflexivity|].
  cbn [units_fit forallb snd] in Hfit. apply andb_prop in Hfit. destruct Hfit as [Hn Hfit].
  cbn [expected_scs copy_loop snd fst map sample].
  set (nl := match expected_scs (Zlen P + sclen f + Zlen n) t with
             | nx :: _ => snd nx - (Zlen P + sclen f) - fst nx
             | [] => Zlen l - (Zlen P + sclen f)
             end).
  assert (Hsc : Zlen (start_code f) = sclen f) by (destruct f; reflexivity).
  assert (Hnl : nl = Zlen n).
  { unfold nl. destruct t as [|[f' n'] t'].
    - cbn [expected_scs]. subst l. cbn [stream]. rewrite !Zlen_app, Hsc, Zlen_nil. lia.
    - cbn [expected_scs snd fst]. lia. }
  rewrite Hnl, put_be32_len by exact Hn.
  assert (Hl' : l = (P ++ start_code f) ++ n ++ stream t).
  { subst l. cbn [stream]. rewrite <- !app_assoc. reflexivity. }
  assert (HP' : Zlen (P ++ start_code f) = Zlen P + sclen f) by (rewrite Zlen_app, Hsc; reflexivity).
  rewrite <- HP'. rewrite Hl' at 1. rewrite slice_mid. cbn [rbind].
  specialize (IH ((P ++ start_code f) ++ n) l Hfit).
  rewrite Zlen_app in IH. rewrite IH; [reflexivity|].
  rewrite Hl'. rewrite <- !app_assoc. reflexivity.
Qed.

Lemma min_fold_le (xs : list (Z * Z)) : forall m, fold_left (fun m e => Z.min m (fst e)) xs m <= m.
Proof.
  induction xs as [|e t IH]; intros m; cbn [fold_left]; [lia|].
  specialize (IH (Z.min m (fst e))). lia.
Qed.

Lemma min4_all_four : forall us base m,
  fold_left (fun m e => Z.min m (fst e)) (expected_scs base us) m = 4 -> all_four us = true.
Proof.
  induction us as [|[f n] t IH]; intros base m H; [reflexivity|].
  cbn [expected_scs fold_left fst] in H. cbn [all_four forallb fst].
  pose proof (min_fold_le (expected_scs (base + sclen f + Zlen n) t) (Z.min m (sclen f))) as Hle.
  rewrite H in Hle. destruct f; [|cbn [sclen] in Hle; lia].
  cbn [andb]. exact (IH _ _ H).
Qed.

Lemma to_sample_spec us :
  wf_units us = true -> units_fit us = true ->
  to_nalu_sample (stream us) = Ok (sample (map snd us)).
Proof.
  intros Hwf Hfit. unfold to_nalu_sample. rewrite scan_stream by exact Hwf. cbn [rbind fst snd].
  destruct (Z.eqb_spec (min_sc_len (expected_scs 0 us)) 4) as [E|E].
  - apply min4_all_four in E.
    exact (inplace_spec us [] (Zlen (stream us)) E Hfit eq_refl).
  - exact (copy_spec us [] (stream us) Hfit eq_refl).
Qed.

(* ConvertSampleToByteStream *)
Lemma stream4_cons n t : stream4 (n :: t) = [0; 0; 0; 1]%N ++ n ++ stream4 t.
Proof. reflexivity. Qed.

Lemma s2b_spec : forall ns fuel P L,
  (length ns < fuel)%nat -> forallb fits32 ns = true -> L = Zlen P + Zlen (sample ns) ->
  s2b_loop fuel (P ++ sample ns) L (Zlen P) = Ok (P ++ stream4 ns).
Proof.
  induction ns as [|n t IH]; intros fuel P L Hf Hfit HL.
  - destruct fuel as [|f]; [cbn [length] in Hf; lia|]. cbn [s2b_loop sample stream4 stream map].
    subst L. cbn [sample]. rewrite Zlen_nil. replace (Zlen P <=? Zlen P + 0 - 4) with false by lia.
    reflexivity.
  - destruct fuel as [|f]; [lia|]. cbn [length] in Hf.
    cbn [forallb] in Hfit. apply andb_prop in Hfit. destruct Hfit as [Hn Hfit].
    cbn [s2b_loop sample].
    pose proof (Zlen_nonneg n) as Hn0. pose proof (Zlen_nonneg (sample t)) as Ht0.
    assert (HLv : L = Zlen P + 4 + Zlen n + Zlen (sample t)).
    { subst L. cbn [sample]. autorewrite with zlen. lia. }
    replace (Zlen P <=? L - 4) with true by lia.
    replace (Zlen P + 4) with (Zlen P + Zlen (be32 (lenN n))) by (rewrite Zlen_be32; reflexivity).
    rewrite slice_mid. cbn [rbind].
    rewrite be32_dec_len, copy_into_mid by (exact Hn || reflexivity). cbn [rbind].
    rewrite Zlen_be32.
    replace (Zlen n >? L - (Zlen P + 4)) with false by lia.
    replace (P ++ [0; 0; 0; 1]%N ++ n ++ sample t) with ((P ++ [0; 0; 0; 1]%N ++ n) ++ sample t)
      by (rewrite <- !app_assoc; reflexivity).
    replace (Zlen P + 4 + Zlen n) with (Zlen (P ++ [0; 0; 0; 1]%N ++ n))
      by (autorewrite with zlen; lia).
    rewrite IH; [|lia|exact Hfit|].
    + rewrite stream4_cons, <- !app_assoc. reflexivity.
    + autorewrite with zlen. lia.
Qed.

Lemma length_sample_ge ns : (length ns <= length (sample ns))%nat.
Proof.
  induction ns as [|n t IH]; [cbn; lia|].
  cbn [sample length]. rewrite !app_length, length_be32. lia.
Qed.

Lemma to_stream_spec ns :
  forallb fits32 ns = true -> to_byte_stream (sample ns) = Ok (stream4 ns).
Proof.
  intros Hfit. unfold to_byte_stream.
  pose proof (length_sample_ge ns) as Hle.
  exact (s2b_spec ns (S (length (sample ns))) [] (Zlen (sample ns)) ltac:(lia) Hfit eq_refl).
Qed.

Lemma units_fit_map us : units_fit us = true -> forallb fits32 (map snd us) = true.
Proof.
  unfold units_fit. induction us as [|u t IH]; [reflexivity|]. cbn [forallb map]. intros H.
  apply andb_prop in H. destruct H as [H1 H2]. rewrite H1, (IH H2). reflexivity.
Qed.

Lemma roundtrip_spec us :
  wf_units us = true -> units_fit us = true ->
  (do s <- to_nalu_sample (stream us); to_byte_stream s) = Ok (stream4 (map snd us)).
Proof.
  intros Hwf Hfit. rewrite to_sample_spec by assumption. cbn [rbind].
  apply to_stream_spec, units_fit_map, Hfit.
Qed.
