(* Base.v — shared definitions: Go result classes, bytes as N, fixed-width arithmetic,
   shift/mask <-> arithmetic lemmas.  No axioms. *)
From Coq Require Export List NArith ZArith Bool Lia.
From Coq Require Export ZifyBool ZifyNat ZifyN.
Export ListNotations.
Open Scope N_scope.

(* ZifyN and ZifyNat make zify itself turn / and mod into equations, so lia handles them with no hook.
   ZifyBool's post hook (case analysis on boolean constraints) is switched off: no proof here needs it,
   and it is paid for at every lia in proportion to the context. *)
Ltac Zify.zify_post_hook ::= idtac.

(* ---------- result of running a modelled Go function ---------- *)
Inductive res (A : Type) : Type :=
| Ok (a : A)
| Err            (* Go returned an error value *)
| Panic          (* Go would panic (index/slice out of range, nil dereference) *)
| OutOfFuel.     (* model fuel exhausted: Go would not terminate within the stated bound *)
Arguments Ok {A} a.
Arguments Err {A}.
Arguments Panic {A}.
Arguments OutOfFuel {A}.

Definition rbind {A B} (r : res A) (f : A -> res B) : res B :=
  match r with Ok a => f a | Err => Err | Panic => Panic | OutOfFuel => OutOfFuel end.
Notation "'do' x <- r ; k" := (rbind r (fun x => k)) (at level 200, x pattern, r at level 100, k at level 200).

(* ---------- bytes ---------- *)
Definition byte_ok (b : N) : bool := b <? 256.
Definition bytes_ok (l : list N) : bool := forallb byte_ok l.

Lemma bytes_ok_app l1 l2 : bytes_ok (l1 ++ l2) = bytes_ok l1 && bytes_ok l2.
Proof. unfold bytes_ok. apply forallb_app. Qed.

Lemma bytes_ok_cons b l : bytes_ok (b :: l) = byte_ok b && bytes_ok l.
Proof. reflexivity. Qed.

(* ---------- fixed width ---------- *)
Definition u8  (x : N) : N := x mod 256.
Definition u16 (x : N) : N := x mod 65536.
Definition u32 (x : N) : N := x mod 4294967296.
Definition u64 (x : N) : N := x mod 18446744073709551616.
Definition mask (n : N) : N := N.ones n.

Lemma pow2_pos n : 0 < 2 ^ n.
Proof. apply N.neq_0_lt_0, N.pow_nonzero. discriminate. Qed.

Lemma mask_mod x n : N.land x (mask n) = x mod 2 ^ n.
Proof. unfold mask. apply N.land_ones. Qed.

Lemma land_255 x : N.land x 255 = x mod 256.
Proof. change 255 with (N.ones 8). rewrite N.land_ones. reflexivity. Qed.

Lemma shiftl_mul x n : N.shiftl x n = x * 2 ^ n.
Proof. apply N.shiftl_mul_pow2. Qed.

Lemma shiftr_div x n : N.shiftr x n = x / 2 ^ n.
Proof. apply N.shiftr_div_pow2. Qed.

(* disjoint or is addition *)
Lemma lor_shifted_add a b n : b < 2 ^ n -> N.lor (a * 2 ^ n) b = a * 2 ^ n + b.
Proof.
  intros Hb.
  assert (Hl : N.land (a * 2 ^ n) b = 0).
  { apply N.bits_inj. intros m. rewrite N.land_spec, N.bits_0.
    destruct (N.lt_ge_cases m n) as [Hm|Hm].
    - rewrite <- N.shiftl_mul_pow2, N.shiftl_spec_low by exact Hm. reflexivity.
    - destruct (N.eq_dec b 0) as [->|Hb0]; [rewrite N.bits_0; apply andb_false_r|].
      rewrite (N.bits_above_log2 b m); [apply andb_false_r|].
      apply N.log2_lt_pow2 in Hb; [|lia]. lia. }
  rewrite <- N.lxor_lor by exact Hl. symmetry. apply N.add_nocarry_lxor. exact Hl.
Qed.

(* ---------- small list helpers ---------- *)
Fixpoint sumN (l : list N) : N := match l with [] => 0 | x :: t => x + sumN t end.

Lemma sumN_app l1 l2 : sumN (l1 ++ l2) = sumN l1 + sumN l2.
Proof. induction l1 as [|x t IH]; cbn [sumN app]; lia. Qed.

Definition lenN {A} (l : list A) : N := N.of_nat (length l).

Lemma lenN_app {A} (l1 l2 : list A) : lenN (l1 ++ l2) = lenN l1 + lenN l2.
Proof. unfold lenN. rewrite app_length. lia. Qed.

Lemma lenN_cons {A} (x : A) l : lenN (x :: l) = 1 + lenN l.
Proof. unfold lenN. cbn [length]. lia. Qed.

Lemma lenN_nil {A} : lenN (@nil A) = 0.
Proof. reflexivity. Qed.
