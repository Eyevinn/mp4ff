(* C15Theorems.v — the property theorems of C15 and nothing else. *)
From V.lib Require Import Base.
From V.c13 Require Import C13Spec C13Model.
From V.c15 Require Import C15Model C15Spec C15BitProofs C15AvcSpsProofs C15AvcVuiProofs C15AvcPpsProofs C15AvcSliceProofs C15Avc2Proofs
  C15AvcDimsProofs C15AvcConfModel C15AvcConfSpec C15AvcConfProofs C15Examples.

(* AVC SPS: for every field assignment accepted by sps_valid (profiles with and without the
   chroma / bit-depth / scaling-list block, scaling lists, poc types 0-2, frame/field, cropping for
   all chroma formats, VUI incl. both HRDs, parseVUIBeyondAspectRatio true and false) the parser
   applied to the NAL unit produced by the independent serialiser returns the coded values,
   Width/Height by the cropping formula, NrBytesBeforeVUI / NrBytesRead = bytes of the escaped
   NAL unit holding the bits read.  Guard sps_offsets_zero: see C15_avc_sps_offsets_refuted. *)
Theorem C15_avc_sps : forall v beyond,
  sps_valid v = true -> sps_offsets_zero v = true ->
  parse_sps_br beyond (nalu_sps v) = Ok (expected_sps beyond v).
Proof. exact avc_sps. Qed.
Print Assumptions C15_avc_sps.
Example C15_avc_sps_hyps :
  sps_valid ex_sps = true /\ sps_offsets_zero ex_sps = true
  /\ sps_width (expected_sps true ex_sps) = 1914 /\ sps_height (expected_sps true ex_sps) = 1080
  /\ sps_nr_bytes_before_vui (expected_sps true ex_sps) = 22 /\ sps_nr_bytes_read (expected_sps true ex_sps) = 73.
Proof. vm_compute. repeat split. Qed.

(* without the guard: what the parser returns on EVERY valid SPS — the three se(v) elements come
   back as their codeNum *)
Theorem C15_avc_sps_all_valid : forall v beyond,
  sps_valid v = true ->
  parse_sps_br beyond (nalu_sps v) =
  Ok (expected_sps_gen se_code (nbytes_at (raw_sps v) (sps_bits_before_vui v))
                       (nbytes_at (raw_sps v) (sps_bits_read beyond v)) beyond v).
Proof. exact avc_sps_go. Qed.
Print Assumptions C15_avc_sps_all_valid.

(* the se(v) elements offset_for_non_ref_pic / offset_for_top_to_bottom_field /
   offset_for_ref_frame are read with ReadExpGolomb into uint fields *)
Theorem C15_avc_sps_offsets_refuted :
  exists v, sps_valid v = true /\ parse_sps_br true (nalu_sps v) <> Ok (expected_sps true v).
Proof. exists ex_sps_offsets. split; [vm_compute; reflexivity | vm_compute; discriminate]. Qed.
Print Assumptions C15_avc_sps_offsets_refuted.

(* AVC PPS (repaired text): all slice-group map types 0..6, the part behind more_rbsp_data() present
   or absent, pic scaling lists for every chroma format with and without transform_8x8_mode_flag,
   rbsp trailing bits checked.  chroma = ChromaFormatIDC of the SPS that spsMap holds for the PPS's
   seq_parameter_set_id (consulted only when pic_scaling_matrix_present_flag is set). *)
Theorem C15_avc_pps : forall chroma spsmap v,
  pps_valid chroma v = true ->
  (pps_has_tail v && pic_scaling_matrix_present_flag v = true ->
   spsmap (pps_seq_parameter_set_id v) = Some chroma) ->
  parse_pps_br spsmap (nalu_pps v) = Ok (expected_pps v).
Proof. exact avc_pps. Qed.
Print Assumptions C15_avc_pps.
Example C15_avc_pps_hyps :
  pps_valid 3 ex_pps = true /\ pps_slice_group_id (expected_pps ex_pps) = [0; 2; 1; 1; 0]
  /\ length (pps_pic_scaling_lists (expected_pps ex_pps)) = 12%nat.
Proof. vm_compute. repeat split. Qed.

(* AVC slice header (repaired text).  For every field assignment accepted by slice_valid: slice types 0..9,
   nal_unit_type 1 and 5, every nal_ref_idc, field/frame, poc types 0-2, override of the active
   reference counts, ref_pic_list_modification loops for both lists, pred_weight_table for every
   ChromaArrayType, dec_ref_pic_marking incl. the memory_management_control_operation loop, CABAC,
   SP/SI, deblocking; slice_data of any length behind the header.  spsmap / ppsmap are ARBITRARY maps
   that hold, under the slice's pic_parameter_set_id and under that PPS's seq_parameter_set_id (not
   the PPS's own id), what the parameter-set parsers returned for the PPS / SPS NAL units: the parser
   returns the coded values, SeqParamID = the PPS's seq_parameter_set_id and Size = number of bytes
   of the escaped NAL unit that hold the header.  cm is the SPS map the PPS was parsed with (it is
   consulted for the PPS's scaling lists only).  Guard sl_has_fmo_cycle pp = false: see
   C15_avc_slice_fmo_refuted (known finding F7). *)
Theorem C15_avc_slice : forall spsmap ppsmap sp pp v beyond cm s p,
  sps_valid sp = true -> pps_valid (eff_chroma_format_idc sp) pp = true -> slice_valid sp pp v = true ->
  sl_has_fmo_cycle pp = false ->
  (pps_has_tail pp && pic_scaling_matrix_present_flag pp = true ->
   cm (pps_seq_parameter_set_id pp) = Some (eff_chroma_format_idc sp)) ->
  parse_sps_br beyond (nalu_sps sp) = Ok s -> parse_pps_br cm (nalu_pps pp) = Ok p ->
  ppsmap (sl_pic_parameter_set_id v) = Some p -> spsmap (pps_seq_parameter_set_id pp) = Some s ->
  parse_slice_br spsmap ppsmap (nalu_slice sp pp v) = Ok (expected_slice sp pp v).
Proof. exact avc_slice. Qed.
Print Assumptions C15_avc_slice.
(* B slice, pps id 2 <> sps id 7, override, rplm on both lists, weights, four marking operations *)
Example C15_avc_slice_hyps :
  sps_valid ex_sl_sps = true /\ pps_valid (eff_chroma_format_idc ex_sl_sps) ex_sl_pps = true
  /\ slice_valid ex_sl_sps ex_sl_pps ex_slice = true /\ sl_has_fmo_cycle ex_sl_pps = false
  /\ sh_pic_param_id (expected_slice ex_sl_sps ex_sl_pps ex_slice) = 2
  /\ sh_seq_param_id (expected_slice ex_sl_sps ex_sl_pps ex_slice) = 7
  /\ sh_long_term_pic_num (expected_slice ex_sl_sps ex_sl_pps ex_slice) = 9
  /\ sh_size (expected_slice ex_sl_sps ex_sl_pps ex_slice) = 30
  /\ lenN (nalu_slice ex_sl_sps ex_sl_pps ex_slice) = 31.
Proof. vm_compute. repeat split. Qed.

(* slice_group_change_cycle: the parser derives its width from pps.PicSizeInMapUnitsMinus1, which is
   not coded for slice-group map types 3..5 *)
Theorem C15_avc_slice_fmo_refuted :
  exists sp pp v s p,
    sps_valid sp = true /\ pps_valid (eff_chroma_format_idc sp) pp = true /\ slice_valid sp pp v = true
    /\ parse_sps_br true (nalu_sps sp) = Ok s /\ parse_pps_br (fun _ => None) (nalu_pps pp) = Ok p
    /\ parse_slice_br (fun _ => Some s) (fun _ => Some p) (nalu_slice sp pp v) <> Ok (expected_slice sp pp v).
Proof.
  exists ex_fmo_sps, ex_fmo_pps, ex_fmo_slice, (expected_sps true ex_fmo_sps), (expected_pps ex_fmo_pps).
  repeat split; try (vm_compute; reflexivity). vm_compute. discriminate.
Qed.
Print Assumptions C15_avc_slice_fmo_refuted.

(* Width / Height of every valid SPS by the standard's cropping formula (7.4.2.1.1), written out:
   PicWidthInMbs * 16 - CropUnitX * (left + right), (2 - frame_mbs_only_flag) * PicHeightInMapUnits * 16
   - CropUnitY * (top + bottom), CropUnitX / CropUnitY from ChromaArrayType (chroma_format_idc,
   separate_colour_plane_flag; 4:2:0 inferred when the profile has no chroma block), SubWidthC / SubHeightC
   and frame_mbs_only_flag.  Stated with + so that no truncated subtraction is involved. *)
Theorem C15_avc_dims : forall v beyond s,
  sps_valid v = true -> parse_sps_br beyond (nalu_sps v) = Ok s ->
  let high := existsb (N.eqb (profile_idc v)) [100; 110; 122; 244; 44; 83; 86; 118; 128; 138; 139; 134; 135] in
  let chroma := if high then chroma_format_idc v else 1 in
  let separate := high && (chroma =? 3) && separate_colour_plane_flag v in
  let chroma_array_type := if separate then 0 else chroma in
  let sub_width_c := if chroma =? 3 then 1 else 2 in
  let sub_height_c := if chroma =? 1 then 2 else 1 in
  let fmo := if frame_mbs_only_flag v then 1 else 0 in
  let crop_unit_x := if chroma_array_type =? 0 then 1 else sub_width_c in
  let crop_unit_y := if chroma_array_type =? 0 then 2 - fmo else sub_height_c * (2 - fmo) in
  let crop x := if frame_cropping_flag v then x else 0 in
  let pic_width_in_mbs := pic_width_in_mbs_minus1 v + 1 in
  let pic_height_in_map_units := pic_height_in_map_units_minus1 v + 1 in
  sps_width s + crop_unit_x * (crop (frame_crop_left_offset v) + crop (frame_crop_right_offset v))
    = pic_width_in_mbs * 16
  /\ sps_height s + crop_unit_y * (crop (frame_crop_top_offset v) + crop (frame_crop_bottom_offset v))
    = (2 - fmo) * pic_height_in_map_units * 16
  /\ 0 < sps_width s /\ 0 < sps_height s.
Proof.
  intros v beyond s Hv Hs. destruct (avc_dims v beyond s Hv Hs) as (Hw & Hh & Hpos).
  rewrite crop_w_offsets in Hw. rewrite crop_h_offsets in Hh.
  unfold crop_unit_x, crop_unit_y, chroma_array_type in Hw, Hh. rewrite eff_separate_by_eff_chroma in Hw, Hh.
  exact (conj Hw (conj Hh Hpos)).
Qed.
Print Assumptions C15_avc_dims.
(* ex_sps: 4:2:2 interlaced, 120 x 34 map units, crop 1,2,3,1: 1920 - 2*3 = 1914, 1088 - 2*4 = 1080 *)
Example C15_avc_dims_hyps :
  sps_valid ex_sps = true
  /\ option_map (fun s => (sps_width s, sps_height s))
       (match parse_sps_br false (nalu_sps ex_sps) with Ok s => Some s | _ => None end) = Some (1914, 1080).
Proof. vm_compute. repeat split. Qed.

(* AVC decoder configuration record (avc/avcdecoderconfigurationrecord.go, repaired text 4c725fa).
   C15_avc_confrec: for every valid SPS sp, CreateAVCDecConfRec applied to [nalu_sps sp; any further SPS NAL
   units] and any PPS NAL units returns the record that carries profile_idc, the constraint-flag byte,
   level_idc, chroma_format_idc and the bit depths (minus 8) of sp (4:2:0 / 8 bit inferred when the profile
   has no chroma block) and, when includePS is set, the parameter-set NAL units verbatim. *)
Theorem C15_avc_confrec : forall sp rest ppss inc,
  sps_valid sp = true ->
  create_confrec_br (nalu_sps sp :: rest) ppss inc
  = Ok (mkConf (profile_idc sp) (compat_byte sp) (level_idc sp)
               (if inc then nalu_sps sp :: rest else []) (if inc then ppss else [])
               (eff_chroma_format_idc sp)
               (if has_chroma_block (profile_idc sp) then bit_depth_luma_minus8 sp else 0)
               (if has_chroma_block (profile_idc sp) then bit_depth_chroma_minus8 sp else 0) 0 false).
Proof. exact avc_confrec_create. Qed.
Print Assumptions C15_avc_confrec.

(* C15_avc_confrec_decode: DecodeAVCDecConfRec applied to the record laid out bit by bit as in ISO/IEC
   14496-15 5.3.3.1.2 (any number of SPS <= 31 / PPS <= 255 NAL units of up to 65535 bytes, trailer for
   every profile except 66/77/88) returns the coded values and the NAL units verbatim. *)
Theorem C15_avc_confrec_decode : forall x,
  confrec_syntax_valid x = true -> decode_confrec (ser_confrec x) = Ok (expected_confrec x).
Proof. exact avc_confrec_decode. Qed.
Print Assumptions C15_avc_confrec_decode.
Example C15_avc_confrec_hyps :
  confrec_syntax_valid (confrec_of_sps ex_sps [nalu_sps ex_sps] [nalu_pps ex_pps] true) = true
  /\ firstn 6 (ser_confrec (confrec_of_sps ex_sps [nalu_sps ex_sps] [nalu_pps ex_pps] true)) = [1; 122; 80; 41; 255; 225]
  /\ cr_chroma (expected_confrec (confrec_of_sps ex_sps [nalu_sps ex_sps] [nalu_pps ex_pps] true)) = 2
  /\ cr_bdl (expected_confrec (confrec_of_sps ex_sps [nalu_sps ex_sps] [nalu_pps ex_pps] true)) = 2.
Proof. vm_compute. repeat split. Qed.

(* avc.CodecString: "<sample entry>.PPCCLL" with PP = profile_idc, CC = the constraint-flag byte, LL = level_idc
   of the SPS, two upper-case hexadecimal digits each (RFC 6381 3.3), for every valid SPS and every sample
   entry name. *)
Theorem C15_avc_codec_string : forall entry sp beyond s,
  sps_valid sp = true -> parse_sps_br beyond (nalu_sps sp) = Ok s ->
  codec_string entry s = codec_string_spec entry sp.
Proof. exact avc_codec_string. Qed.
Print Assumptions C15_avc_codec_string.
Example C15_avc_codec_string_hyps :
  codec_string_spec [97; 118; 99; 49] ex_sps = [97; 118; 99; 49; 46; 55; 65; 53; 48; 50; 57].   (* "avc1.7A5029" *)
Proof. vm_compute. reflexivity. Qed.

(* C15_avc_confrec_encode: for every record whose fields fit the syntax (<= 31 SPS, <= 255 PPS, NAL units up to
   65535 bytes, chroma_format <= 3, bit depths <= 7, NumSPSExt = 0, NoTrailingInfo unset) Encode over the
   FixedSliceWriter of capacity Size() never overflows and writes exactly the byte layout of 5.3.3.1.2, and
   Size() is its length. *)
Theorem C15_avc_confrec_encode : forall a,
  confrec_syntax_valid (syntax_of a) = true -> cr_num_sps_ext a = 0 -> cr_no_trailing a = false ->
  encode_confrec a = Ok (ser_confrec_bytes (syntax_of a))
  /\ confrec_size a = lenN (ser_confrec_bytes (syntax_of a)).
Proof. exact avc_confrec_encode. Qed.
Print Assumptions C15_avc_confrec_encode.

(* C15_avc_confrec_roundtrip: create -> encode -> decode for every record the constructor produces from a
   valid first SPS: the encoded bytes are the bit layout of the standard for the SPS's values, Size() is
   their length, decoding returns the values a reader of the record knows (expected_confrec: the trailer
   fields only for profiles other than 66/77/88) - the created record itself whenever the profile carries
   the trailer. *)
Theorem C15_avc_confrec_roundtrip : forall sp rest ppss inc,
  sps_valid sp = true ->
  (inc = true -> lenN (nalu_sps sp :: rest) < 32 /\ lenN ppss < 256
                 /\ forallb ps_ok (nalu_sps sp :: rest) = true /\ forallb ps_ok ppss = true) ->
  let spss := nalu_sps sp :: rest in
  let x := confrec_of_sps sp spss ppss inc in
  exists a bs,
    create_confrec_br spss ppss inc = Ok a
    /\ encode_confrec a = Ok bs /\ bs = ser_confrec x /\ confrec_size a = lenN bs
    /\ decode_confrec bs = Ok (expected_confrec x)
    /\ (has_trailer (profile_idc sp) = true -> decode_confrec bs = Ok a).
Proof. exact avc_confrec_roundtrip. Qed.
Print Assumptions C15_avc_confrec_roundtrip.
Example C15_avc_confrec_roundtrip_hyps :
  sps_valid ex_sps = true /\ lenN [nalu_sps ex_sps] < 32
  /\ forallb ps_ok [nalu_sps ex_sps] = true /\ forallb ps_ok [nalu_pps ex_pps] = true
  /\ has_trailer (profile_idc ex_sps) = true.
Proof. vm_compute. repeat split. Qed.
