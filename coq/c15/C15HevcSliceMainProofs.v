(* C15HevcSliceMainProofs.v — the block `if !sh.DependentSliceSegmentFlag { ... }` of
   hevc.ParseSliceHeader: reserved flags .. slice_loop_filter_across_slices_enabled_flag. *)
From V.lib Require Import Base.
From V.c13 Require Import C13Spec C13Model.
From V.c15 Require Import C15Model C15Spec C15BitProofs C15AvcSpsProofs C15AvcPpsProofs
  C15HevcModel C15HevcSpec C15HevcBitProofs C15HevcSpsRpsProofs C15HevcPpsProofs C15HevcSliceBaseProofs
  C15HevcSliceRpsProofs C15HevcSliceInterProofs.

Section NoDivision.
(* nothing in this section divides: lia without its preprocessing of / and mod, which visits every
   hypothesis at every call (dlia, C15HevcBitProofs, is lia with that step) *)
Ltac Zify.zify_convert_to_euclidean_division_equations_flag ::= constr:(false).

Local Notation "x <- m ;; k" := (bind m (fun x => k))
  (at level 61, m at next level, right associativity).

Lemma cat_eq sp :
  (if hs_sep_plane sp && (sx_chroma_format_idc sp =? 3) then 0 else sx_chroma_format_idc sp)
  = hs_chroma_array_type sp.
Proof.
  unfold hs_chroma_array_type, hs_sep_plane.
  destruct (sx_chroma_format_idc sp =? 3), (sx_separate_colour_plane_flag sp); reflexivity.
Qed.

(* the value of the block, in the form expected_hslice uses *)
Definition exp_main sp pp v :=
  let n (c : bool) (x : N) := if c then x else 0 in
  let zz (c : bool) (k : Z) := if c then k else 0%Z in
  let m := hs_main pp v in
  let cq := m && sx_pps_slice_chroma_qp_offsets_present_flag pp in
  let aq := m && hs_act_qp pp in
  let bt := hs_dbf_override pp v && negb (sx_slice_deblocking_filter_disabled_flag v) in
  (n m (sx_slice_type v),
   m && sx_output_flag_present_flag pp && sx_pic_output_flag v,
   n (m && hs_sep_plane sp) (sx_colour_plane_id v),
   n (hs_nidr pp v) (sx_slice_pic_order_cnt_lsb v),
   hs_nidr pp v && sx_short_term_ref_pic_set_sps_flag v,
   expected_hslice_rps sp pp v, hs_st_idx sp pp v,
   (lenN (hs_lt_sps_entries sp pp v), lenN (hs_lt_pics_entries sp pp v),
    map (lt_val_sps sp) (hs_lt_sps_entries sp pp v) ++ map lt_val_pics (hs_lt_pics_entries sp pp v)),
   hs_tmvp sp pp v, (hs_sao_luma sp pp v, hs_sao_chroma sp pp v),
   (hs_override pp v, n (hs_inter pp v) (hs_l0 pp v), n (hs_inter pp v) (hs_l1 pp v),
    (if hs_rplm sp pp v
     then Some (sx_ref_pic_list_modification_flag_l0 v,
                (if sx_ref_pic_list_modification_flag_l0 v then sx_list_entry_l0 v else []),
                hs_is_b pp v && sx_ref_pic_list_modification_flag_l1 v,
                (if hs_is_b pp v && sx_ref_pic_list_modification_flag_l1 v then sx_list_entry_l1 v else []))
     else None),
    hs_is_b pp v && sx_mvd_l1_zero_flag v,
    hs_inter pp v && sx_cabac_init_present_flag pp && sx_cabac_init_flag v,
    (if hs_inter pp v && hs_tmvp sp pp v then hs_col_l0 pp v else true),
    n (hs_col_idx sp pp v) (sx_collocated_ref_idx v),
    (if hs_pwt pp v
     then Some (sx_luma_log2_weight_denom v, zz (hs_cat_nz sp) (sx_delta_chroma_log2_weight_denom v),
                map (expected_hpwt sp) (sx_pwt_l0 v),
                (if hs_is_b pp v then map (expected_hpwt sp) (sx_pwt_l1 v) else []))
     else None),
    n (hs_inter pp v) (sx_five_minus_max_num_merge_cand v),
    hs_inter pp v && hs_mvres2 sp && sx_use_integer_mv_flag v),
   (zz m (sx_slice_qp_delta v), zz cq (sx_slice_cb_qp_offset v), zz cq (sx_slice_cr_qp_offset v),
    zz aq (sx_slice_act_y_qp_offset v), zz aq (sx_slice_act_cb_qp_offset v),
    zz aq (sx_slice_act_cr_qp_offset v),
    m && hs_cqp_list pp && sx_cu_chroma_qp_offset_enabled_flag v),
   (hs_dbf_override pp v, m && hs_dbf_disabled pp v,
    zz bt (sx_slice_beta_offset_div2 v), zz bt (sx_slice_tc_offset_div2 v),
    hs_lf_across sp pp v && sx_slice_loop_filter_across_slices_enabled_flag v)).

Lemma exp_main_dep sp pp v : hs_main pp v = false -> exp_main sp pp v = hslice_main_zero.
Proof.
  intros Hm. unfold exp_main, hslice_main_zero. cbv zeta.
  unfold expected_hslice_rps, hs_st_idx, hs_st_idx_coded, hs_lt_sps_entries, hs_lt_pics_entries, hs_lt_on,
    hs_tmvp, hs_sao_luma, hs_sao_chroma, hs_override, hs_rplm, hs_col_idx, hs_pwt, hs_inter, hs_is_p, hs_is_b,
    hs_dbf_override, hs_lf_across, hs_nidr.
  rewrite Hm. cbn [andb negb orb map app lenN length N.of_nat]. rewrite !Bool.andb_false_r. reflexivity.
Qed.

Lemma parses_slice_main raw sp pp v pos :
  hsps_valid sp = true -> hpps_valid pp = true -> hslice_valid sp pp v = true ->
  hs_main pp v = true ->
  parses raw (hparse_slice_main BR (hs_nt v) (expected_hsps sp) (expected_hpps pp)) pos
         (ser_hslice_main sp pp v) (exp_main sp pp v).
Proof.
  intros Hs Hp Hv Hm.
  assert (Hv' := Hv). unfold hslice_valid in Hv'. split_all.
  unfold hparse_slice_main, ser_hslice_main. cbv zeta.
  esp_fields. fold (hs_sep_plane sp). rewrite !cat_eq. fold (hs_cat_nz sp). fold (hs_idr v).
  (* slice_reserved_flag *)
  eapply parses_bind.
  { pose proof (parses_rep_n raw (rd_flag BR) fl (fun b : bool => b) (sx_slice_reserved_flags v)
                  (sx_num_extra_slice_header_bits pp) pos) as P.
    rewrite flat_map_fl, map_id in P. apply P; [lia | unfold loop_bound; destruct (hpps_valid_ids pp Hp); lia|].
    intros. apply parses_flag. }
  cbv beta.
  pread.
  pbind ltac:(apply (parses_opt raw _ (sx_output_flag_present_flag pp) _ (sx_pic_output_flag v) false);
              intros _; apply parses_flag).
  pbind ltac:(apply (parses_opt raw _ (hs_sep_plane sp) _ (sx_colour_plane_id v) 0);
              intros _; plast ltac:(apply parses_rd; change (2 ^ 2) with 4; lia);
              apply parses_ret_eq; apply u8_id; lia).
  pbind ltac:(apply (parses_sl_rf raw sp pp v); assumption).
  (* sao *)
  eapply parses_bind.
  { instantiate (1 := (hs_sao_luma sp pp v, hs_sao_chroma sp pp v)).
    unfold hs_sao_luma, hs_sao_chroma. rewrite Hm. cbn [andb].
    destruct (sx_sample_adaptive_offset_enabled_flag sp); cbn [opt_bits andb]; [|apply parses_ret].
    pread.
    plast ltac:(apply (parses_opt raw _ (hs_cat_nz sp) _ (sx_slice_sao_chroma_flag v) false);
                intros _; apply parses_flag).
    apply parses_ret_eq. destruct (hs_cat_nz sp); reflexivity. }
  cbv beta.
  pbind ltac:(apply (parses_sl_inter raw sp pp v); assumption).
  pread.
  (* chroma qp offsets *)
  eapply parses_bind.
  { instantiate (1 := ((if sx_pps_slice_chroma_qp_offsets_present_flag pp then sx_slice_cb_qp_offset v else 0%Z),
                       (if sx_pps_slice_chroma_qp_offsets_present_flag pp then sx_slice_cr_qp_offset v else 0%Z))).
    destruct (sx_pps_slice_chroma_qp_offsets_present_flag pp); cbn [opt_bits]; [|apply parses_ret].
    preads.
    apply parses_ret_eq. rewrite !i8_id by assumption. reflexivity. }
  cbv beta.
  (* act qp offsets *)
  eapply parses_bind.
  { instantiate (1 := ((if hs_act_qp pp then sx_slice_act_y_qp_offset v else 0%Z),
                       (if hs_act_qp pp then sx_slice_act_cb_qp_offset v else 0%Z),
                       (if hs_act_qp pp then sx_slice_act_cr_qp_offset v else 0%Z))).
    unfold hs_act_qp.
    destruct (hpps_ext_on pp sx_pps_scc_extension_flag); cbn [andb opt_bits]; [|apply parses_ret].
    cbn [ps_slice_act_qp_present expected_hppsscc].
    destruct (sx_residual_adaptive_colour_transform_enabled_flag (sx_pps_scc_extension pp)
              && sx_pps_slice_act_qp_offsets_present_flag (sx_pps_scc_extension pp)); cbn [opt_bits];
      [|apply parses_ret].
    preads.
    apply parses_ret_eq. rewrite !i8_id by assumption. reflexivity. }
  cbv beta.
  (* cu_chroma_qp_offset_enabled_flag *)
  eapply parses_bind.
  { instantiate (1 := hs_cqp_list pp && sx_cu_chroma_qp_offset_enabled_flag v).
    unfold hs_cqp_list.
    destruct (hpps_ext_on pp sx_pps_range_extension_flag); cbn [andb opt_bits]; [|apply parses_ret].
    cbn [pr_cqp_list_enabled expected_hppsrange].
    destruct (sx_chroma_qp_offset_list_enabled_flag (sx_pps_range_extension pp)); cbn [opt_bits andb];
      [apply parses_flag | apply parses_ret]. }
  cbv beta.
  (* deblocking *)
  eapply parses_bind.
  { apply (parses_optv raw _ (sx_deblocking_filter_control_present_flag pp
                              && sx_deblocking_filter_override_enabled_flag pp) _
             (hs_dbf_override pp v) false).
    - intros Hc. apply andb_prop in Hc. destruct Hc as [Hc1 Hc2].
      unfold hs_dbf_override. rewrite Hm, Hc1, Hc2. cbn [andb]. apply parses_flag.
    - intros Hc. unfold hs_dbf_override. rewrite Hm. cbn [andb]. rewrite Hc. reflexivity. }
  cbv beta.
  eapply parses_bind.
  { instantiate (1 := (hs_dbf_disabled pp v,
                       ((if hs_dbf_override pp v && negb (sx_slice_deblocking_filter_disabled_flag v)
                         then sx_slice_beta_offset_div2 v else 0%Z),
                        (if hs_dbf_override pp v && negb (sx_slice_deblocking_filter_disabled_flag v)
                         then sx_slice_tc_offset_div2 v else 0%Z)))).
    unfold hs_dbf_disabled.
    destruct (hs_dbf_override pp v); cbn [opt_bits andb]; [|apply parses_ret].
    pread.
    destruct (sx_slice_deblocking_filter_disabled_flag v); cbn [negb opt_bits].
    - preads.
    - eapply parses_bind_nil.
      { preads. }
      cbv beta. apply parses_ret_eq. rewrite !i8_id by assumption. reflexivity. }
  cbv beta iota zeta. cbn [fst snd].
  plast ltac:(apply (parses_opt raw _ (sx_pps_loop_filter_across_slices_enabled_flag pp
                                       && (hs_sao_luma sp pp v || hs_sao_chroma sp pp v
                                           || negb (hs_dbf_disabled pp v))) _
                       (sx_slice_loop_filter_across_slices_enabled_flag v) false);
              intros _; apply parses_flag).
  apply parses_ret_eq.
  unfold exp_main. cbv zeta. unfold hs_lf_across. rewrite Hm. cbn [andb].
  destruct (sx_pps_loop_filter_across_slices_enabled_flag pp
            && (hs_sao_luma sp pp v || hs_sao_chroma sp pp v || negb (hs_dbf_disabled pp v)));
    reflexivity.
Qed.

End NoDivision.
