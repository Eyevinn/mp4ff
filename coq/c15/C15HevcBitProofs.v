(* C15HevcBitProofs.v — generic lemmas for the HEVC parameter-set proofs: flags as u(1) and the 48
   constraint bits as one number, the two-byte NAL unit header, the bit reader on an HEVC NAL unit,
   closure lemmas for mapM / rep_until_err, `parses_t` (parse in front of a fixed tail) and `runs_to`
   (whole-program runs) with their walks, more_rbsp_data / sps_extension_data_flag loop,
   rbsp_trailing_bits + end-of-data check. *)
From V.lib Require Import Base.
From V.c13 Require Import C13Spec C13Model C13EscProofs.
From V.c15 Require Import C15Model C15Spec C15BitProofs C15AvcSpsProofs C15AvcPpsProofs
  C15HevcModel C15HevcSpec.

(* lia with the step that turns / and mod into equations, for use where that step is switched off *)
Ltac dlia := zify; Z.to_euclidean_division_equations; lia.

(* ------------------------------------------------------------------ flags as u(1) *)
Lemma fl_u1 b : fl b = u 1 (b2n b).
Proof. destruct b; reflexivity. Qed.

Lemma b2n_lt2 b : b2n b < 2.
Proof. destruct b; cbn [b2n]; lia. Qed.

Lemma flat_map_fl (l : list bool) : flat_map fl l = l.
Proof. induction l as [|b t IH]; cbn [flat_map fl app]; [reflexivity | now rewrite IH]. Qed.

(* general_progressive_source_flag .. general_inbld_flag as one 48 bit number *)
Lemma constraint48_bits p :
  sx_constraint_43bits p < 2 ^ 43 ->
  fl (sx_progressive_source_flag p) ++ fl (sx_interlaced_source_flag p)
  ++ fl (sx_non_packed_constraint_flag p) ++ fl (sx_frame_only_constraint_flag p)
  ++ u 43 (sx_constraint_43bits p) ++ fl (sx_inbld_flag p) = u 48 (constraint48 p)
  /\ constraint48 p < 2 ^ 48.
Proof.
  intros Hr. unfold constraint48.
  set (r := sx_constraint_43bits p) in *.
  pose proof (b2n_lt2 (sx_progressive_source_flag p)) as Ha.
  pose proof (b2n_lt2 (sx_interlaced_source_flag p)) as Hb.
  pose proof (b2n_lt2 (sx_non_packed_constraint_flag p)) as Hc.
  pose proof (b2n_lt2 (sx_frame_only_constraint_flag p)) as Hd.
  pose proof (b2n_lt2 (sx_inbld_flag p)) as Hi.
  rewrite !fl_u1.
  set (a := b2n (sx_progressive_source_flag p)) in *.
  set (b := b2n (sx_interlaced_source_flag p)) in *.
  set (c := b2n (sx_non_packed_constraint_flag p)) in *.
  set (d := b2n (sx_frame_only_constraint_flag p)) in *.
  set (i := b2n (sx_inbld_flag p)) in *.
  change (2 ^ 43) with 8796093022208 in Hr.
  change (2 ^ 48) with 281474976710656.
  change (2 ^ 47) with 140737488355328. change (2 ^ 46) with 70368744177664.
  change (2 ^ 45) with 35184372088832. change (2 ^ 44) with 17592186044416.
  split; [|lia].
  rewrite (u_app 43 1) by (change (2 ^ 1) with 2; lia).
  rewrite (u_app 1 (43 + 1)) by (change (2 ^ (43 + 1)) with 17592186044416; change (2 ^ 1) with 2; lia).
  rewrite (u_app 1 (1 + (43 + 1)))
    by (change (2 ^ (1 + (43 + 1))) with 35184372088832; change (2 ^ (43 + 1)) with 17592186044416;
        change (2 ^ 1) with 2; lia).
  rewrite (u_app 1 (1 + (1 + (43 + 1))))
    by (change (2 ^ (1 + (1 + (43 + 1)))) with 70368744177664;
        change (2 ^ (1 + (43 + 1))) with 35184372088832; change (2 ^ (43 + 1)) with 17592186044416;
        change (2 ^ 1) with 2; lia).
  rewrite (u_app 1 (1 + (1 + (1 + (43 + 1)))))
    by (change (2 ^ (1 + (1 + (1 + (43 + 1))))) with 140737488355328;
        change (2 ^ (1 + (1 + (43 + 1)))) with 70368744177664;
        change (2 ^ (1 + (43 + 1))) with 35184372088832; change (2 ^ (43 + 1)) with 17592186044416;
        change (2 ^ 1) with 2; lia).
  change (1 + (1 + (1 + (1 + (43 + 1))))) with 48.
  change (2 ^ (1 + (1 + (1 + (43 + 1))))) with 140737488355328.
  change (2 ^ (1 + (1 + (43 + 1)))) with 70368744177664.
  change (2 ^ (1 + (43 + 1))) with 35184372088832. change (2 ^ (43 + 1)) with 17592186044416.
  change (2 ^ 1) with 2.
  f_equal. lia.
Qed.

(* ------------------------------------------------------------------ nal_unit_header (7.3.1.2) *)
Lemma hnal_header_u16 typ layer tid : typ < 64 -> layer < 64 -> tid < 8 ->
  hnal_header typ layer tid = u 16 (512 * typ + 8 * layer + tid)
  /\ 512 * typ + 8 * layer + tid < 2 ^ 16
  /\ hnalu_type (512 * typ + 8 * layer + tid) = typ.
Proof.
  intros Ht Hl Hd. split; [|split].
  - unfold hnal_header. change [false] with (u 1 0).
    rewrite (u_app 6 3) by (change (2 ^ 3) with 8; lia).
    rewrite (u_app 6 (6 + 3)) by (change (2 ^ (6 + 3)) with 512; change (2 ^ 3) with 8; lia).
    rewrite (u_app 1 (6 + (6 + 3)))
      by (change (2 ^ (6 + (6 + 3))) with 32768; change (2 ^ (6 + 3)) with 512; change (2 ^ 3) with 8; lia).
    change (1 + (6 + (6 + 3))) with 16.
    change (2 ^ (6 + (6 + 3))) with 32768. change (2 ^ (6 + 3)) with 512. change (2 ^ 3) with 8.
    f_equal. lia.
  - change (2 ^ 16) with 65536. lia.
  - unfold hnalu_type, u8. rewrite !N.shiftr_div_pow2. change 63 with (N.ones 6).
    rewrite N.land_ones. change (2 ^ 8) with 256. change (2 ^ 1) with 2. change (2 ^ 6) with 64. dlia.
Qed.

(* the bit reader started on an HEVC NAL unit sees header, payload, trailing bits *)
Lemma binit_hnalu typ layer tid payload :
  binit (hnalu_of typ layer tid payload) =
  mkB (hraw_nalu typ layer tid payload)
      (hnal_header typ layer tid ++ payload
       ++ trailing_bits (lenN (hnal_header typ layer tid ++ payload)))
      0 false.
Proof.
  unfold binit, hnalu_of. rewrite unescape_escape.
  f_equal. unfold hraw_nalu.
  set (b := hnal_header typ layer tid ++ payload).
  destruct (trailing_aligns (lenN b)) as [m Hm].
  rewrite (bits_of_bytes_of_bits m).
  - unfold b. now rewrite <- app_assoc.
  - rewrite app_length. unfold lenN in Hm. rewrite Nat2N.id in Hm. exact Hm.
Qed.

(* ------------------------------------------------------------------ closure lemmas *)
Lemma parses_mapM {A B X} raw (f : A -> bstate -> res (B * bstate)) (g : X -> A)
      (enc : X -> list bool) (val : X -> B) :
  forall (xs : list X) pos,
    (forall x pos', In x xs -> parses raw (f (g x)) pos' (enc x) (val x)) ->
    parses raw (mapM f (map g xs)) pos (flat_map enc xs) (map val xs).
Proof.
  induction xs as [|x t IH]; intros pos H; cbn [map mapM flat_map].
  - apply parses_ret.
  - eapply parses_bind; [apply H; left; reflexivity|].
    eapply parses_bind_nil; [apply IH; intros; apply H; right; assumption|].
    apply parses_ret.
Qed.

Lemma parses_rep_until_err {A X} raw (body : bstate -> res (A * bstate)) (enc : X -> list bool)
      (val : X -> A) :
  forall (xs : list X) pos,
    (forall x pos', In x xs -> parses raw body pos' (enc x) (val x)) ->
    parses raw (rep_until_err BR (length xs) body) pos (flat_map enc xs) (map val xs).
Proof.
  induction xs as [|x t IH]; intros pos H; cbn [length rep_until_err flat_map map].
  - apply parses_ret.
  - eapply parses_bind; [apply H; left; reflexivity|]. cbv beta.
    eapply parses_bind_peek; [apply parses_get_err|]. cbv beta iota.
    eapply parses_bind_nil; [apply IH; intros; apply H; right; assumption|].
    apply parses_ret.
Qed.

Lemma parses_rep_until_err_n {A X} raw (body : bstate -> res (A * bstate)) (enc : X -> list bool)
      (val : X -> A) (xs : list X) n pos :
  n = lenN xs -> n <= loop_bound ->
  (forall x pos', In x xs -> parses raw body pos' (enc x) (val x)) ->
  parses raw (rep_until_err_n BR n body) pos (flat_map enc xs) (map val xs).
Proof.
  intros -> Hb H. unfold rep_until_err_n.
  replace (lenN xs <=? loop_bound) with true by lia.
  unfold lenN. rewrite Nat2N.id. apply parses_rep_until_err. exact H.
Qed.

(* `rep k body` with a literal k *)
Lemma parses_rep_len {A X} raw (body : bstate -> res (A * bstate)) (enc : X -> list bool) (val : X -> A)
      (xs : list X) (k : nat) pos :
  k = length xs ->
  (forall x pos', In x xs -> parses raw body pos' (enc x) (val x)) ->
  parses raw (rep k body) pos (flat_map enc xs) (map val xs).
Proof. intros ->. apply parses_rep. Qed.

(* optional element whose value is wrapped in Some *)
Lemma parses_opt_some {A} raw (p : bstate -> res (A * bstate)) (c : bool) e (a : A) pos :
  (c = true -> parses raw p pos e a) ->
  parses raw (if c then bind p (fun x => ret (Some x)) else ret None) pos (opt_bits c e)
         (if c then Some a else None).
Proof.
  destruct c; intros H; [|apply parses_ret].
  eapply parses_bind_nil; [apply H; reflexivity | apply parses_ret].
Qed.

(* optional element with an explicitly given value *)
Lemma parses_opt_eq {A} raw (p : bstate -> res (A * bstate)) (c : bool) e (a d x : A) pos :
  (c = true -> parses raw p pos e a) -> x = (if c then a else d) ->
  parses raw (if c then p else ret d) pos (opt_bits c e) x.
Proof. intros H ->. apply parses_opt. exact H. Qed.

(* ------------------------------------------------------------------ parse in front of a fixed tail *)
Definition parses_t {A} (raw : list N) (p : bstate -> res (A * bstate)) (pos : N)
           (enc : list bool) (a : A) (T : list bool) : Prop :=
  p (mkB raw (enc ++ T) pos false) = Ok (a, mkB raw T (pos + lenN enc) false).

Lemma parses_t_of {A} raw (p : bstate -> res (A * bstate)) pos enc (a : A) T :
  parses raw p pos enc a -> parses_t raw p pos enc a T.
Proof. intros H. apply H. Qed.

Lemma parses_t_bind {A B} raw (p : bstate -> res (A * bstate)) (k : A -> bstate -> res (B * bstate))
      pos e1 e2 a b T :
  parses raw p pos e1 a -> parses_t raw (k a) (pos + lenN e1) e2 b T ->
  parses_t raw (bind p k) pos (e1 ++ e2) b T.
Proof.
  intros H1 H2. unfold parses_t, bind in *. rewrite <- app_assoc, H1, H2, lenN_app, N.add_assoc.
  reflexivity.
Qed.

Lemma parses_t_bind_nil {A B} raw (p : bstate -> res (A * bstate)) (k : A -> bstate -> res (B * bstate))
      pos e1 a b T :
  parses_t raw p pos e1 a T -> parses_t raw (k a) (pos + lenN e1) [] b T ->
  parses_t raw (bind p k) pos e1 b T.
Proof.
  intros H1 H2. unfold parses_t, bind in *. rewrite H1. cbn [app] in H2. rewrite H2.
  rewrite lenN_nil, N.add_0_r. reflexivity.
Qed.

Lemma parses_t_ret {A} raw pos (a : A) T : parses_t raw (ret a) pos [] a T.
Proof. apply parses_t_of, parses_ret. Qed.

Lemma parses_t_ret_eq {A} raw pos (a b : A) T : a = b -> parses_t raw (ret a) pos [] b T.
Proof. intros ->. apply parses_t_ret. Qed.

Ltac tbind tac := eapply parses_t_bind; [ tac | cbv beta iota zeta ].

(* ------------------------------------------------------------------ whole-program runs *)
Definition runs_to {A} (raw : list N) (p : bstate -> res (A * bstate)) (pos : N)
           (enc T : list bool) (a : A) : Prop :=
  run p (mkB raw (enc ++ T) pos false) = Ok a.

Lemma runs_bind {A B} raw (p : bstate -> res (A * bstate)) (k : A -> bstate -> res (B * bstate))
      pos e1 e2 T x b :
  parses raw p pos e1 x -> runs_to raw (k x) (pos + lenN e1) e2 T b ->
  runs_to raw (bind p k) pos (e1 ++ e2) T b.
Proof.
  intros H1 H2. unfold runs_to, run, bind in *. rewrite <- app_assoc, H1. exact H2.
Qed.

Lemma runs_bind_peek {A B} raw (p : bstate -> res (A * bstate)) (k : A -> bstate -> res (B * bstate))
      pos e T x b :
  parses raw p pos [] x -> runs_to raw (k x) pos e T b -> runs_to raw (bind p k) pos e T b.
Proof.
  intros H1 H2. change e with ([] ++ e). eapply runs_bind; [exact H1|].
  rewrite lenN_nil, N.add_0_r. exact H2.
Qed.

Lemma runs_bind_t {A B} raw (p : bstate -> res (A * bstate)) (k : A -> bstate -> res (B * bstate))
      pos e T x b :
  parses_t raw p pos e x T -> run (k x) (mkB raw T (pos + lenN e) false) = Ok b ->
  runs_to raw (bind p k) pos e T b.
Proof. intros H1 H2. unfold runs_to, run, bind, parses_t in *. rewrite H1. exact H2. Qed.

Ltac rbind tac := eapply runs_bind; [ tac | cbv beta iota zeta ].

(* pread (C15AvcSpsProofs) for a whole-program run: the next element is a plain flag / ue(v) / se(v),
   possibly under an `if`, or the parser looks at the error flag *)
Ltac rread :=
  lazymatch goal with
  | |- runs_to _ (bind (rd_flag BR) _) _ _ _ _ => rbind ltac:(apply parses_flag)
  | |- runs_to _ (bind (rd_ue BR) _) _ _ _ _ => rbind ltac:(apply parses_ue)
  | |- runs_to _ (bind (rd_se BR) _) _ _ _ _ => rbind ltac:(apply parses_se)
  | |- runs_to _ (bind (if _ then rd_flag BR else ret _) _) _ _ _ _ =>
      rbind ltac:(apply parses_opt; intros _; apply parses_flag)
  | |- runs_to _ (bind (if _ then rd_ue BR else ret _) _) _ _ _ _ =>
      rbind ltac:(apply parses_opt; intros _; apply parses_ue)
  | |- runs_to _ (bind (get_err BR) _) _ _ _ _ =>
      eapply runs_bind_peek; [apply parses_get_err | cbv beta iota zeta]
  end.
Ltac rreads := repeat rread.

(* ------------------------------------------------------------------ sps/pps_extension_data_flag loop *)
(* at every flag position more_rbsp_data() answers true because the trailing 1 bit follows *)
Lemma hext_data_loop_ok raw n : forall (flags : list bool) (fuel : nat) acc pos,
  (length flags < fuel)%nat ->
  parses_t raw (hext_data_loop BR fuel acc) pos flags (acc ++ flags) (trailing_bits n).
Proof.
  induction flags as [|b t IH]; intros fuel acc pos Hf; (destruct fuel as [|f]; [cbn [length] in Hf; lia|]);
    unfold parses_t; cbn [hext_data_loop].
  - unfold bind at 1. unfold rd_more at 1. cbn [r_more BR app]. rewrite br_more_trailing. cbv iota.
    unfold ret. rewrite app_nil_r, lenN_nil, N.add_0_r. reflexivity.
  - unfold bind at 1. unfold rd_more at 1. cbn [r_more BR]. rewrite br_more_data. cbv iota.
    change ((b :: t) ++ trailing_bits n) with (fl b ++ t ++ trailing_bits n).
    rewrite (bind_parses raw _ _ pos (fl b) b (t ++ trailing_bits n) (parses_flag raw b pos)).
    cbn [length] in Hf.
    rewrite (IH f (acc ++ [b]) (pos + lenN (fl b))) by lia.
    rewrite <- app_assoc. cbn [app]. rewrite lenN_cons, lenN_fl. do 3 f_equal. lia.
Qed.

(* rbsp_trailing_bits and the end-of-data check *)
Lemma hparse_end_ok {A} raw n pos (a : A) :
  run (hparse_end BR a) (mkB raw (trailing_bits n) pos false) = Ok a.
Proof.
  unfold hparse_end, run.
  unfold rd_trailing at 1. unfold bind at 1. cbn [r_trailing BR]. rewrite br_trailing_ok. cbv iota.
  unfold get_err at 1. unfold bind at 1. cbn [r_err BR berr]. cbv iota.
  unfold rd at 1. unfold bind at 1. cbn [r_read BR]. unfold br_read. cbn [berr bbits lenN length].
  change (1 <=? N.of_nat 0) with false. cbv iota.
  unfold get_err at 1. unfold bind at 1. cbn [r_err BR berr bfail negb]. cbv iota.
  unfold ret. reflexivity.
Qed.
