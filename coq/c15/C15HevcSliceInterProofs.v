(* C15HevcSliceInterProofs.v — the inter-prediction part of the HEVC slice segment header:
   num_ref_idx override, ref_pic_lists_modification (entry width Ceil(Log2(NumPicTotalCurr)), the
   model's uint8 NumPicTotalCurr = (7-55)), mvd_l1_zero / cabac_init /
   collocated_*, pred_weight_table, five_minus_max_num_merge_cand, use_integer_mv_flag. *)
From V.lib Require Import Base.
From V.c13 Require Import C13Spec C13Model.
From V.c15 Require Import C15Model C15Spec C15BitProofs C15AvcSpsProofs C15AvcPpsProofs
  C15HevcModel C15HevcSpec C15HevcBitProofs C15HevcSpsRpsProofs C15HevcPpsProofs C15HevcSliceBaseProofs
  C15HevcSliceRpsProofs.

Section NoDivision.
(* nothing in this section divides: lia without its preprocessing of / and mod, which visits every
   hypothesis at every call (dlia, C15HevcBitProofs, is lia with that step) *)
Ltac Zify.zify_convert_to_euclidean_division_equations_flag ::= constr:(false).

Local Notation "x <- m ;; k" := (bind m (fun x => k))
  (at level 61, m at next level, right associativity).

(* ------------------------------------------------------------------ NumPicTotalCurr *)
Lemma go_npt1_eq sp pp v :
  hs_num_pic_total_curr sp pp v < 256 ->
  match pp_scc (expected_hpps pp) with
  | Some sc => if ps_curr_pic_ref sc then u8 (go_npt sp pp v + 1) else go_npt sp pp v
  | None => go_npt sp pp v
  end = hs_num_pic_total_curr sp pp v.
Proof.
  intros Ht.
  assert (E : go_npt sp pp v + (if hs_curr_pic_ref pp then 1 else 0) = hs_num_pic_total_curr sp pp v).
  { unfold go_npt, hs_num_pic_total_curr in *.
    rewrite count_in_use_curr by lia.
    destruct (hs_nidr pp v) eqn:Hn.
    - unfold lt_useds in *.
      set (a := d_num_used (hs_curr_rps sp pp v)) in *.
      set (l1 := map (fun e => snd (hs_sps_lt sp (fst (fst e)))) (hs_lt_sps_entries sp pp v)) in *.
      set (l2 := map (fun e => snd (fst (fst e))) (hs_lt_pics_entries sp pp v)) in *.
      rewrite lt_acc_small by (rewrite countb_app; lia).
      rewrite countb_app. lia.
    - unfold hs_curr_rps, hs_lt_sps_entries, hs_lt_pics_entries, hs_lt_on. rewrite Hn. cbn [andb map].
      unfold d_num_used. cbn. lia. }
  rewrite epp_scc. unfold hs_curr_pic_ref in *.
  destruct (hpps_ext_on pp sx_pps_scc_extension_flag); cbn [andb] in *.
  - cbn [ps_curr_pic_ref expected_hppsscc].
    destruct (sx_pps_curr_pic_ref_enabled_flag (sx_pps_scc_extension pp)).
    + rewrite u8_id by lia. lia.
    + lia.
  - lia.
Qed.

(* ------------------------------------------------------------------ ref_pic_lists_modification *)
Lemma parses_rplm_entries raw l npt (es : list N) pos :
  lenN es = l + 1 -> l <= 14 -> 1 < npt -> npt < 256 -> forallb (fun x => x <? npt) es = true ->
  parses raw (rep_n (u8 (l + 1)) (x <- rd BR (ceil_log2 npt) ;; ret (u8 x))) pos
         (flat_map (u (N.log2_up npt)) es) es.
Proof.
  intros Hl H14 H1 H256 Hv.
  rewrite u8_id by lia. rewrite ceil_log2_eq by (change (2 ^ 32) with 4294967296; lia).
  pose proof (log2_up_bound npt ltac:(lia)) as Hlb.
  pose proof (parses_rep_n raw (x <- rd BR (N.log2_up npt) ;; ret (u8 x)) (u (N.log2_up npt))
                (fun x : N => x) es (l + 1) pos) as P.
  rewrite map_id in P. apply P; [lia | unfold loop_bound; lia|].
  intros x pos' Hin. rewrite forallb_forall in Hv. specialize (Hv x Hin).
  plast ltac:(apply parses_rd; lia). apply parses_ret_eq. apply u8_id. lia.
Qed.

Lemma hs_l01_le14 sp pp v : hpps_valid pp = true -> hslice_valid sp pp v = true ->
  hs_l0 pp v <= 14 /\ hs_l1 pp v <= 14.
Proof.
  intros Hp Hv. unfold hpps_valid in Hp. cbv zeta in Hp. unfold hslice_valid in Hv. split_all.
  unfold hs_l0, hs_l1. destruct (hs_override pp v), (hs_is_b pp v); cbn [andb]; lia.
Qed.

Lemma parses_hrplm raw sp pp v pos :
  hpps_valid pp = true -> hslice_valid sp pp v = true -> hs_rplm sp pp v = true ->
  parses raw (hparse_rplm BR (hs_is_b pp v) (hs_l0 pp v) (hs_l1 pp v) (hs_num_pic_total_curr sp pp v)) pos
    (fl (sx_ref_pic_list_modification_flag_l0 v)
     ++ opt_bits (sx_ref_pic_list_modification_flag_l0 v)
          (flat_map (u (hs_list_entry_bits sp pp v)) (sx_list_entry_l0 v))
     ++ opt_bits (hs_is_b pp v)
          (fl (sx_ref_pic_list_modification_flag_l1 v)
           ++ opt_bits (sx_ref_pic_list_modification_flag_l1 v)
                (flat_map (u (hs_list_entry_bits sp pp v)) (sx_list_entry_l1 v))))
    (sx_ref_pic_list_modification_flag_l0 v,
     (if sx_ref_pic_list_modification_flag_l0 v then sx_list_entry_l0 v else []),
     hs_is_b pp v && sx_ref_pic_list_modification_flag_l1 v,
     (if hs_is_b pp v && sx_ref_pic_list_modification_flag_l1 v then sx_list_entry_l1 v else [])).
Proof.
  intros Hp Hv Hr.
  destruct (hs_l01_le14 sp pp v Hp Hv) as [Hl0 Hl1].
  assert (Hr' := Hr). unfold hs_rplm in Hr'. split_all.
  unfold hslice_valid in Hv. split_all. rewrite Hr in *. cbn [andb] in *.
  assert (Ht : hs_num_pic_total_curr sp pp v < 256) by lia.
  unfold hparse_rplm, hs_list_entry_bits.
  pread.
  eapply parses_bind.
  { apply (parses_opt raw _ (sx_ref_pic_list_modification_flag_l0 v) _ (sx_list_entry_l0 v) []).
    intros Hf. rewrite Hf in *. split_all.
    apply parses_rplm_entries; [lia | exact Hl0 | lia | exact Ht | assumption]. }
  cbv beta.
  destruct (hs_is_b pp v) eqn:Hb; cbn [opt_bits andb] in *.
  - eapply parses_bind_nil.
    { pread.
      eapply parses_bind_nil.
      { apply (parses_opt raw _ (sx_ref_pic_list_modification_flag_l1 v) _ (sx_list_entry_l1 v) []).
        intros Hf. rewrite Hf in *. split_all.
        apply parses_rplm_entries; [lia | exact Hl1 | lia | exact Ht | assumption]. }
      cbv beta. apply parses_ret. }
    cbv beta.
    pread. cbn [fst snd]. apply parses_ret.
  - preads.
Qed.

(* ------------------------------------------------------------------ pred_weight_table (7.3.6.3) *)
Lemma combine_map_same {A B C} (f : A -> B) (g : A -> C) (l : list A) :
  combine (map f l) (map g l) = map (fun e => (f e, g e)) l.
Proof. induction l as [|x t IH]; cbn [map combine]; [reflexivity | now rewrite IH]. Qed.

Lemma parses_hpwt_values raw sp e pos : hpwt_ok e = true ->
  parses raw (hparse_pwt_values BR (pw_luma_flag e, hs_cat_nz sp && pw_chroma_flag e)) pos
    (opt_bits (pw_luma_flag e) (se_bits (pw_dlw e) ++ se_bits (pw_lo e))
     ++ opt_bits (hs_cat_nz sp && pw_chroma_flag e)
          (se_bits (pw_dcw0 e) ++ se_bits (pw_dco0 e) ++ se_bits (pw_dcw1 e) ++ se_bits (pw_dco1 e)))
    (expected_hpwt sp e).
Proof.
  intros Hok. unfold hpwt_ok in Hok. split_all.
  unfold hparse_pwt_values, expected_hpwt. cbv zeta. cbn [fst snd].
  destruct (pw_luma_flag e), (hs_cat_nz sp && pw_chroma_flag e); cbn [opt_bits app].
  - eapply parses_bind.
    { preads. }
    cbv beta.
    eapply parses_bind_nil.
    { preads. }
    cbv beta iota zeta. cbn [fst snd]. apply parses_ret_eq. rewrite !i8_id by assumption. reflexivity.
  - rewrite app_nil_r. eapply parses_bind_nil.
    { preads. }
    cbv beta. apply parses_bind_ret. cbv beta iota zeta. cbn [fst snd].
    apply parses_ret_eq. rewrite !i8_id by assumption. reflexivity.
  - apply parses_bind_ret. cbv beta.
    eapply parses_bind_nil.
    { preads. }
    cbv beta iota zeta. cbn [fst snd]. apply parses_ret_eq. rewrite !i8_id by assumption. reflexivity.
  - preads.
Qed.

Lemma parses_flag_list {X} raw (f : X -> bool) (l : list X) n pos :
  n = lenN l -> n <= loop_bound ->
  parses raw (rep_n n (rd_flag BR)) pos (flat_map (fun e => fl (f e)) l) (map f l).
Proof.
  intros Hn Hb. apply (parses_rep_n raw (rd_flag BR) (fun e => fl (f e)) f l n pos Hn Hb).
  intros. apply parses_flag.
Qed.

Lemma parses_hpwt_list raw sp l (lst : list hpwt) pos :
  lenN lst = l + 1 -> l <= 14 -> forallb hpwt_ok lst = true ->
  parses raw (hparse_pwt_list BR (hs_cat_nz sp) (u8 (l + 1))) pos (ser_hpwt_list sp lst)
         (map (expected_hpwt sp) lst).
Proof.
  intros Hl H14 Hok. unfold hparse_pwt_list, ser_hpwt_list.
  rewrite u8_id by lia.
  pbind ltac:(apply (parses_flag_list raw pw_luma_flag lst); [lia | unfold loop_bound; lia]).
  eapply parses_bind.
  { apply (parses_optv raw _ (hs_cat_nz sp) _ (map (fun e => hs_cat_nz sp && pw_chroma_flag e) lst)).
    - intros Hc. rewrite Hc. cbn [andb].
      apply (parses_flag_list raw pw_chroma_flag lst); [lia | unfold loop_bound; lia].
    - intros Hc. rewrite Hc. rewrite map_map. reflexivity. }
  cbv beta. rewrite combine_map_same.
  eapply parses_enc_eq; [|apply (parses_mapM raw (hparse_pwt_values BR)
                                   (fun e => (pw_luma_flag e, hs_cat_nz sp && pw_chroma_flag e))
                                   (fun e => opt_bits (pw_luma_flag e) (se_bits (pw_dlw e) ++ se_bits (pw_lo e))
                                             ++ opt_bits (hs_cat_nz sp && pw_chroma_flag e)
                                                  (se_bits (pw_dcw0 e) ++ se_bits (pw_dco0 e)
                                                   ++ se_bits (pw_dcw1 e) ++ se_bits (pw_dco1 e)))
                                   (expected_hpwt sp) lst)].
  - reflexivity.
  - intros e pos' Hin. rewrite forallb_forall in Hok. apply parses_hpwt_values. apply Hok. exact Hin.
Qed.

Lemma parses_hpwt raw sp pp v pos :
  hpps_valid pp = true -> hslice_valid sp pp v = true -> hs_pwt pp v = true ->
  parses raw (hparse_pwt BR (hs_is_b pp v) (hs_cat_nz sp) (hs_l0 pp v) (hs_l1 pp v)) pos
    (ue_bits (sx_luma_log2_weight_denom v)
     ++ opt_bits (hs_cat_nz sp) (se_bits (sx_delta_chroma_log2_weight_denom v))
     ++ ser_hpwt_list sp (sx_pwt_l0 v) ++ opt_bits (hs_is_b pp v) (ser_hpwt_list sp (sx_pwt_l1 v)))
    (sx_luma_log2_weight_denom v,
     (if hs_cat_nz sp then sx_delta_chroma_log2_weight_denom v else 0%Z),
     map (expected_hpwt sp) (sx_pwt_l0 v),
     (if hs_is_b pp v then map (expected_hpwt sp) (sx_pwt_l1 v) else [])).
Proof.
  intros Hp Hv Hw.
  destruct (hs_l01_le14 sp pp v Hp Hv) as [Hl0 Hl1].
  unfold hslice_valid in Hv. split_all. rewrite Hw in *. split_all.
  unfold hparse_pwt.
  pread.
  pbind ltac:(apply (parses_opt raw _ (hs_cat_nz sp) _ (sx_delta_chroma_log2_weight_denom v) 0%Z);
              intros _; plast ltac:(apply parses_se); apply parses_ret_eq; apply i8_id; assumption).
  pbind ltac:(apply (parses_hpwt_list raw sp (hs_l0 pp v)); [lia | exact Hl0 | assumption]).
  plast ltac:(apply (parses_opt raw _ (hs_is_b pp v) _ (map (expected_hpwt sp) (sx_pwt_l1 v)) []);
              intros Hb; match goal with H : (if hs_is_b pp v then _ else true) = true |- _ =>
                           rewrite Hb in H; split_all end;
              apply (parses_hpwt_list raw sp (hs_l1 pp v)); [lia | exact Hl1 | assumption]).
  pread.
  apply parses_ret_eq. rewrite u8_id by lia. reflexivity.
Qed.

(* ------------------------------------------------------------------ the block `if P || B { ... }` *)
Definition sl_inter (is_p is_b : bool) (npt : N) (tmvp cat_nz : bool) (hs : hsps) (hp : hpps) :=
  (if is_p || is_b then
     ov <- rd_flag BR ;;
     nr <- (if ov then
              a <- rd_ue BR ;;
              b <- (if is_b then x <- rd_ue BR ;; ret (u8 x) else ret (pp_l1 hp)) ;;
              ret (u8 a, b)
            else ret (pp_l0 hp, pp_l1 hp)) ;;
     let '(l0, l1) := nr in
     if (14 <? l0) || (14 <? l1) then fail else
     rplm <- (if pp_lists_mod hp then
                let npt1 := match pp_scc hp with
                            | Some sc => if ps_curr_pic_ref sc then u8 (npt + 1) else npt
                            | None => npt
                            end in
                if 1 <? npt1 then x <- hparse_rplm BR is_b l0 l1 npt1 ;; ret (Some x)
                else ret None
              else ret None) ;;
     mvd <- (if is_b then rd_flag BR else ret false) ;;
     cab <- (if pp_cabac_init_present hp then rd_flag BR else ret false) ;;
     col <- (if tmvp then
               cf <- (if is_b then rd_flag BR else ret true) ;;
               ci <- (if (cf && (0 <? l0)) || (negb cf && (0 <? l1))
                      then x <- rd_ue BR ;; ret (u8 x) else ret 0) ;;
               ret (cf, ci)
             else ret (true, 0)) ;;
     pw <- (if (pp_weighted_pred hp && is_p) || (pp_weighted_bipred hp && is_b)
            then x <- hparse_pwt BR is_b cat_nz l0 l1 ;; ret (Some x) else ret None) ;;
     fm <- rd_ue BR ;;
     im <- (match h_scc hs with
            | Some sc => if ss_mv_res_idc sc =? 2 then rd_flag BR else ret false
            | None => ret false
            end) ;;
     ret (ov, l0, l1, rplm, mvd, cab, fst col, snd col, pw, u8 fm, im)
   else ret (false, 0, 0, None, false, false, true, 0, None, 0, false)).

Lemma parses_sl_inter raw sp pp v pos :
  hsps_valid sp = true -> hpps_valid pp = true -> hslice_valid sp pp v = true ->
  hs_main pp v = true ->
  parses raw (sl_inter (sx_slice_type v =? 1) (sx_slice_type v =? 0) (go_npt sp pp v) (hs_tmvp sp pp v)
                       (hs_cat_nz sp) (expected_hsps sp) (expected_hpps pp)) pos
    (opt_bits (hs_inter pp v) (ser_hslice_inter sp pp v))
    (hs_override pp v,
     (if hs_inter pp v then hs_l0 pp v else 0), (if hs_inter pp v then hs_l1 pp v else 0),
     (if hs_rplm sp pp v
      then Some (sx_ref_pic_list_modification_flag_l0 v,
                 (if sx_ref_pic_list_modification_flag_l0 v then sx_list_entry_l0 v else []),
                 hs_is_b pp v && sx_ref_pic_list_modification_flag_l1 v,
                 (if hs_is_b pp v && sx_ref_pic_list_modification_flag_l1 v then sx_list_entry_l1 v else []))
      else None),
     hs_is_b pp v && sx_mvd_l1_zero_flag v,
     hs_inter pp v && sx_cabac_init_present_flag pp && sx_cabac_init_flag v,
     (if hs_inter pp v && hs_tmvp sp pp v then hs_col_l0 pp v else true),
     (if hs_col_idx sp pp v then sx_collocated_ref_idx v else 0),
     (if hs_pwt pp v
      then Some (sx_luma_log2_weight_denom v,
                 (if hs_cat_nz sp then sx_delta_chroma_log2_weight_denom v else 0%Z),
                 map (expected_hpwt sp) (sx_pwt_l0 v),
                 (if hs_is_b pp v then map (expected_hpwt sp) (sx_pwt_l1 v) else []))
      else None),
     (if hs_inter pp v then sx_five_minus_max_num_merge_cand v else 0),
     hs_inter pp v && hs_mvres2 sp && sx_use_integer_mv_flag v).
Proof.
  intros Hs Hp Hv Hm.
  destruct (hs_l01_le14 sp pp v Hp Hv) as [Hl0 Hl1].
  assert (Hv' := Hv). unfold hslice_valid in Hv'. split_all.
  assert (EP : hs_is_p pp v = (sx_slice_type v =? 1)) by (unfold hs_is_p; rewrite Hm; reflexivity).
  assert (EB : hs_is_b pp v = (sx_slice_type v =? 0)) by (unfold hs_is_b; rewrite Hm; reflexivity).
  rewrite <- EP, <- EB. unfold sl_inter. fold (hs_inter pp v).
  destruct (hs_inter pp v) eqn:Hi; cbn [opt_bits andb].
  2:{ apply parses_ret_eq. unfold hs_inter in Hi. apply Bool.orb_false_elim in Hi. destruct Hi as [HP HB].
      unfold hs_override, hs_rplm, hs_col_idx, hs_pwt, hs_inter. rewrite HP, HB.
      rewrite !Bool.andb_false_r. reflexivity. }
  assert (Ht : hs_num_pic_total_curr sp pp v < 256) by lia.
  assert (Hov : hs_override pp v = sx_num_ref_idx_active_override_flag v)
    by (unfold hs_override; rewrite Hi; reflexivity).
  unfold ser_hslice_inter.
  pread.
  (* num_ref_idx_active *)
  eapply parses_bind.
  { instantiate (1 := (hs_l0 pp v, hs_l1 pp v)).
    unfold hs_l0, hs_l1. rewrite Hov. rewrite epp_l0, epp_l1.
    destruct (sx_num_ref_idx_active_override_flag v); cbn [opt_bits andb]; [|apply parses_ret].
    pread.
    eapply parses_bind_nil.
    { apply (parses_opt raw _ (hs_is_b pp v) _ (sx_num_ref_idx_l1_active_minus1 v)
               (sx_num_ref_idx_l1_default_active_minus1 pp)).
      intros _. pread. apply parses_ret_eq. apply u8_id. lia. }
    cbv beta. apply parses_ret_eq. rewrite u8_id by lia. reflexivity. }
  cbv beta iota zeta.
  replace ((14 <? hs_l0 pp v) || (14 <? hs_l1 pp v)) with false by lia. cbv iota.
  (* ref_pic_lists_modification *)
  eapply parses_bind.
  { instantiate (1 := if hs_rplm sp pp v
                      then Some (sx_ref_pic_list_modification_flag_l0 v,
                                 (if sx_ref_pic_list_modification_flag_l0 v then sx_list_entry_l0 v else []),
                                 hs_is_b pp v && sx_ref_pic_list_modification_flag_l1 v,
                                 (if hs_is_b pp v && sx_ref_pic_list_modification_flag_l1 v
                                  then sx_list_entry_l1 v else []))
                      else None).
    rewrite epp_lists_mod.
    destruct (sx_lists_modification_present_flag pp) eqn:Hlm.
    - rewrite (go_npt1_eq sp pp v Ht).
      assert (Hr : hs_rplm sp pp v = (1 <? hs_num_pic_total_curr sp pp v))
        by (unfold hs_rplm; rewrite Hi, Hlm; reflexivity).
      rewrite Hr. destruct (1 <? hs_num_pic_total_curr sp pp v) eqn:H1; cbn [opt_bits].
      + plast ltac:(apply (parses_hrplm raw sp pp v); [exact Hp | exact Hv | rewrite Hr; reflexivity]).
        apply parses_ret.
      + apply parses_ret.
    - assert (Hr : hs_rplm sp pp v = false) by (unfold hs_rplm; rewrite Hi, Hlm; reflexivity).
      rewrite Hr. apply parses_ret. }
  cbv beta.
  pbind ltac:(apply (parses_opt raw _ (hs_is_b pp v) _ (sx_mvd_l1_zero_flag v) false);
              intros _; apply parses_flag).
  rewrite epp_cabac_init_present.
  pbind ltac:(apply (parses_opt raw _ (sx_cabac_init_present_flag pp) _ (sx_cabac_init_flag v) false);
              intros _; apply parses_flag).
  (* collocated *)
  eapply parses_bind.
  { instantiate (1 := ((if hs_tmvp sp pp v then hs_col_l0 pp v else true),
                       (if hs_col_idx sp pp v then sx_collocated_ref_idx v else 0))).
    assert (Hci : hs_col_idx sp pp v
                  = hs_tmvp sp pp v && ((hs_col_l0 pp v && (0 <? hs_l0 pp v))
                                        || (negb (hs_col_l0 pp v) && (0 <? hs_l1 pp v))))
      by (unfold hs_col_idx; rewrite Hi; reflexivity).
    rewrite Hci.
    destruct (hs_tmvp sp pp v); cbn [opt_bits andb]; [|apply parses_ret].
    eapply parses_bind.
    { apply (parses_opt raw _ (hs_is_b pp v) _ (sx_collocated_from_l0_flag v) true).
      intros _. apply parses_flag. }
    cbv beta. fold (hs_col_l0 pp v).
    eapply parses_bind_nil.
    { apply (parses_opt raw _ ((hs_col_l0 pp v && (0 <? hs_l0 pp v))
                               || (negb (hs_col_l0 pp v) && (0 <? hs_l1 pp v))) _
               (sx_collocated_ref_idx v) 0).
      intros _. pread. apply parses_ret_eq. apply u8_id. lia. }
    cbv beta. apply parses_ret. }
  cbv beta.
  (* pred_weight_table *)
  rewrite epp_weighted_pred, epp_weighted_bipred. fold (hs_pwt pp v).
  pbind ltac:(apply parses_opt_some; intros Hw; apply (parses_hpwt raw sp pp v); assumption).
  pread.
  (* use_integer_mv_flag *)
  eapply parses_bind_nil.
  { instantiate (1 := hs_mvres2 sp && sx_use_integer_mv_flag v).
    rewrite esp_scc. unfold hs_mvres2.
    destruct (hsps_ext_on sp sx_sps_scc_extension_flag); cbn [andb opt_bits]; [|apply parses_ret].
    cbn [ss_mv_res_idc expected_hspsscc].
    destruct (sx_motion_vector_resolution_control_idc (sx_sps_scc_extension sp) =? 2); cbn [opt_bits andb];
      [apply parses_flag | apply parses_ret]. }
  cbv beta. cbn [fst snd].
  apply parses_ret_eq. rewrite u8_id by lia. rewrite Hov.
  destruct (hs_is_b pp v), (sx_cabac_init_present_flag pp); reflexivity.
Qed.

End NoDivision.
