(* C15HevcSpsRpsProofs.v — st_ref_pic_set of the HEVC SPS: parseShortTermRPS (model, ideal bit
   reader) on the serialised explicit / inter-predicted sets returns the coded deltas resp.
   NumDeltaPocs of the set derived by (7-61)/(7-62); the loop over all sets. *)
From V.lib Require Import Base.
From V.c13 Require Import C13Spec C13Model.
From V.c15 Require Import C15Model C15Spec C15BitProofs C15AvcSpsProofs C15AvcPpsProofs
  C15HevcModel C15HevcSpec C15HevcBitProofs.

Section NoDivision.
(* nothing in this section divides: lia without its preprocessing of / and mod, which visits every
   hypothesis at every call (dlia, C15HevcBitProofs, is lia with that step) *)
Ltac Zify.zify_convert_to_euclidean_division_equations_flag ::= constr:(false).

(* ------------------------------------------------------------------ lists *)
Lemma combine_app_eq {A B} (a b : list A) (c d : list B) :
  length a = length c -> combine (a ++ b) (c ++ d) = combine a c ++ combine b d.
Proof.
  revert c. induction a as [|x t IH]; intros [|y c] H; cbn [length app combine] in *;
    try discriminate; [reflexivity|].
  f_equal. apply IH. lia.
Qed.

Lemma combine_app_short {A B} (a : list A) (c d : list B) :
  length a = length c -> combine a (c ++ d) = combine a c.
Proof.
  revert c. induction a as [|x t IH]; intros [|y c] H; cbn [length app combine] in *;
    try discriminate; [reflexivity|].
  f_equal. apply IH. lia.
Qed.

Lemma map_snd_combine_eq {A B} (a : list A) (b : list B) :
  length a = length b -> map snd (combine a b) = b.
Proof.
  revert b. induction a as [|x t IH]; intros [|y b] H; cbn [length combine map snd] in *;
    try discriminate; [reflexivity|].
  f_equal. apply IH. lia.
Qed.

Lemma filter_rev_lenN {A} (f : A -> bool) (l : list A) : lenN (filter f (rev l)) = lenN (filter f l).
Proof.
  induction l as [|a t IH]; [reflexivity|].
  cbn [rev filter]. rewrite filter_app, lenN_app, IH. cbn [filter].
  destruct (f a); repeat (rewrite lenN_cons || rewrite lenN_nil); lia.
Qed.

Lemma fls_split {A B} (s0 s1 : list A) (fls : list B) :
  length fls = (length s0 + length s1 + 1)%nat ->
  exists f0 f1 last, fls = f0 ++ f1 ++ [last] /\ length f0 = length s0 /\ length f1 = length s1.
Proof.
  intros H. exists (firstn (length s0) fls), (firstn (length s1) (skipn (length s0) fls)).
  remember (skipn (length s1) (skipn (length s0) fls)) as r.
  assert (Hr : length r = 1%nat) by (subst r; rewrite !skipn_length; lia).
  destruct r as [|x [|? ?]]; cbn [length] in Hr; try lia.
  exists x. split; [|split].
  - rewrite Heqr, firstn_skipn, firstn_skipn. reflexivity.
  - apply firstn_length_le. lia.
  - apply firstn_length_le. rewrite skipn_length. lia.
Qed.

Lemma Forall2_nth_error_nth {A B} (P : A -> B -> Prop) la lb i d :
  Forall2 P la lb -> (i < length lb)%nat -> exists a, nth_error la i = Some a /\ P a (nth i lb d).
Proof.
  intros H. revert i. induction H as [|a b la lb Hab H IH]; intros [|i] Hi; cbn [length nth_error nth] in *;
    try lia.
  - eauto.
  - apply IH. lia.
Qed.

Lemma lenN_cumulate s : forall l a, lenN (cumulate s a l) = lenN l.
Proof.
  induction l as [|[m used] t IH]; intros a; cbn [cumulate]; [reflexivity|].
  cbv zeta. rewrite !lenN_cons, IH. reflexivity.
Qed.

(* ------------------------------------------------------------------ counting (7-61)/(7-62) *)
Lemma lenN_shifted keep dl es :
  lenN (shifted keep dl es)
  = lenN (filter (fun e => keep (fst (fst e) + dl)%Z && eff_use (snd e)) es).
Proof.
  unfold shifted. induction es as [|e t IH]; [reflexivity|].
  cbn [flat_map filter]. cbv beta zeta. rewrite lenN_app, IH.
  destruct (keep (fst (fst e) + dl)%Z && eff_use (snd e)); repeat (rewrite lenN_cons || rewrite lenN_nil);
    clear IH; generalize (lenN (filter (fun e0 : Z * bool * (bool * bool) => keep (fst (fst e0) + dl)%Z && eff_use (snd e0)) t));
    intros; lia.
Qed.

Lemma split_count (g : bool * bool -> bool) dl (es : list ((Z * bool) * (bool * bool))) :
  (forall e, In e es -> negb ((fst (fst e) + dl =? 0)%Z && g (snd e)) = true) ->
  lenN (filter (fun e => (fst (fst e) + dl <? 0)%Z && g (snd e)) es)
  + lenN (filter (fun e => (0 <? fst (fst e) + dl)%Z && g (snd e)) es)
  = countb (map (fun e => g (snd e)) es).
Proof.
  unfold countb. induction es as [|e t IH]; intros H; [reflexivity|].
  cbn [filter map].
  assert (He := H e (or_introl eq_refl)).
  assert (Ht : forall e', In e' t -> negb ((fst (fst e') + dl =? 0)%Z && g (snd e')) = true)
    by (intros; apply H; right; assumption).
  specialize (IH Ht).
  destruct (g (snd e)); cbn [andb] in *.
  - rewrite Bool.andb_true_r in *.
    destruct (fst (fst e) + dl <? 0)%Z eqn:E1; destruct (0 <? fst (fst e) + dl)%Z eqn:E2;
      cbn [andb]; repeat rewrite lenN_cons.
    4:{ destruct (fst (fst e) + dl =? 0)%Z eqn:E3; [cbn [negb] in He; discriminate|].
        exfalso. clear - E1 E2 E3. lia. }
    all: cbn [andb]; repeat rewrite lenN_cons; clear - IH E1 E2; lia.
  - rewrite !Bool.andb_false_r. exact IH.
Qed.

Lemma countb_app a b : countb (a ++ b) = countb a + countb b.
Proof. unfold countb. rewrite filter_app, lenN_app. reflexivity. Qed.

Lemma d_num_delta_derive ref dl f0 f1 last :
  length f0 = length (d_s0 ref) -> length f1 = length (d_s1 ref) -> dl <> 0%Z ->
  no_zero_dpoc ref dl (f0 ++ f1 ++ [last]) = true ->
  d_num_delta (derive_rps ref dl (f0 ++ f1 ++ [last])) = countb (map eff_use (f0 ++ f1 ++ [last])).
Proof.
  intros H0 H1 Hd Hnz.
  unfold no_zero_dpoc in Hnz.
  rewrite combine_app_eq in Hnz by (symmetry; exact H0).
  rewrite combine_app_short in Hnz by (symmetry; exact H1).
  rewrite forallb_app in Hnz. apply andb_prop in Hnz. destruct Hnz as [Hz0 Hz1].
  rewrite forallb_forall in Hz0, Hz1.
  unfold derive_rps, d_num_delta. cbv zeta. cbn [d_s0 d_s1].
  rewrite <- H0, <- H1.
  rewrite firstn_len_app, skipn_len_app, firstn_len_app.
  replace (nth (length f0 + length f1) (f0 ++ f1 ++ [last]) (false, false)) with last
    by (rewrite app_assoc, <- app_length; symmetry; apply nth_middle).
  rewrite !lenN_app, !lenN_shifted, !filter_rev_lenN.
  pose proof (split_count eff_use dl (combine (d_s0 ref) f0) Hz0) as S0.
  pose proof (split_count eff_use dl (combine (d_s1 ref) f1) Hz1) as S1.
  rewrite <- (map_map snd eff_use), map_snd_combine_eq in S0 by (symmetry; exact H0).
  rewrite <- (map_map snd eff_use), map_snd_combine_eq in S1 by (symmetry; exact H1).
  rewrite !map_app, !countb_app. cbn [map].
  assert (Hl : lenN (if (dl <? 0)%Z && eff_use last then [(dl, fst last)] else [])
               + lenN (if (0 <? dl)%Z && eff_use last then [(dl, fst last)] else [])
               = countb [eff_use last]).
  { unfold countb. cbn [filter].
    destruct (eff_use last); cbn [andb]; rewrite ?Bool.andb_true_r, ?Bool.andb_false_r.
    - destruct (dl <? 0)%Z eqn:E1; destruct (0 <? dl)%Z eqn:E2; unfold lenN; cbn [length];
        clear - Hd E1 E2; lia.
    - reflexivity. }
  cbv beta in *. clear - S0 S1 Hl. lia.
Qed.

Lemma countb_le l : countb l <= lenN l.
Proof.
  unfold countb. induction l as [|b t IH]; cbn [filter]; [lia|].
  destruct b; repeat rewrite lenN_cons; lia.
Qed.

(* used flags of the entries kept by (7-61)/(7-62) *)
Lemma countb_snd_shifted keep dl es :
  countb (map snd (shifted keep dl es))
  = lenN (filter (fun e => keep (fst (fst e) + dl)%Z && fst (snd e)) es).
Proof.
  unfold shifted, countb. induction es as [|e t IH]; [reflexivity|].
  cbn [flat_map filter]. cbv beta zeta. rewrite map_app, filter_app, lenN_app, IH.
  unfold eff_use.
  destruct (keep (fst (fst e) + dl)%Z), (fst (snd e)), (snd (snd e)); cbn [andb orb map snd filter app];
    repeat rewrite lenN_cons; unfold lenN at 1; cbn [length]; lia.
Qed.

(* NumPicTotalCurr contribution of an inter-predicted set = number of used_by_curr_pic_flag bits *)
Lemma d_num_used_derive ref dl f0 f1 last :
  length f0 = length (d_s0 ref) -> length f1 = length (d_s1 ref) -> dl <> 0%Z ->
  no_zero_dpoc ref dl (f0 ++ f1 ++ [last]) = true ->
  d_num_used (derive_rps ref dl (f0 ++ f1 ++ [last])) = countb (map fst (f0 ++ f1 ++ [last])).
Proof.
  intros H0 H1 Hd Hnz.
  unfold no_zero_dpoc in Hnz.
  rewrite combine_app_eq in Hnz by (symmetry; exact H0).
  rewrite combine_app_short in Hnz by (symmetry; exact H1).
  rewrite forallb_app in Hnz. apply andb_prop in Hnz. destruct Hnz as [Hz0 Hz1].
  rewrite forallb_forall in Hz0, Hz1.
  assert (Hw : forall es : list ((Z * bool) * (bool * bool)),
             (forall e, In e es -> negb ((fst (fst e) + dl =? 0)%Z && eff_use (snd e)) = true) ->
             forall e, In e es -> negb ((fst (fst e) + dl =? 0)%Z && fst (snd e)) = true).
  { intros es Hes e Hin. specialize (Hes e Hin). unfold eff_use in Hes.
    destruct (fst (fst e) + dl =? 0)%Z, (fst (snd e)), (snd (snd e)); cbn [andb orb negb] in *;
      congruence. }
  unfold derive_rps, d_num_used. cbv zeta. cbn [d_s0 d_s1].
  rewrite <- H0, <- H1.
  rewrite firstn_len_app, skipn_len_app, firstn_len_app.
  replace (nth (length f0 + length f1) (f0 ++ f1 ++ [last]) (false, false)) with last
    by (rewrite app_assoc, <- app_length; symmetry; apply nth_middle).
  rewrite !map_app, !countb_app, !countb_snd_shifted, !filter_rev_lenN.
  pose proof (split_count (fun f => fst f) dl (combine (d_s0 ref) f0) (Hw _ Hz0)) as S0.
  pose proof (split_count (fun f => fst f) dl (combine (d_s1 ref) f1) (Hw _ Hz1)) as S1.
  cbv beta in S0, S1.
  rewrite <- (map_map snd fst), map_snd_combine_eq in S0 by (symmetry; exact H0).
  rewrite <- (map_map snd fst), map_snd_combine_eq in S1 by (symmetry; exact H1).
  cbn [map].
  assert (Hl : countb (map snd (if (dl <? 0)%Z && eff_use last then [(dl, fst last)] else []))
               + countb (map snd (if (0 <? dl)%Z && eff_use last then [(dl, fst last)] else []))
               = countb [fst last]).
  { unfold countb, eff_use.
    destruct (fst last), (snd last); destruct (dl <? 0)%Z eqn:E1; destruct (0 <? dl)%Z eqn:E2;
      cbn [andb orb map snd filter]; unfold lenN; cbn [length]; clear - Hd E1 E2; lia. }
  cbv beta in *. clear - S0 S1 Hl. lia.
Qed.

(* ------------------------------------------------------------------ one st_ref_pic_set *)
(* what the loop knows about the sets parsed so far: NumDeltaPocs is that of the derived set *)
Definition rps_rel (a : hrps) (d : rps_derived) : Prop :=
  rps_ndelta a = d_num_delta d /\ d_num_delta d <= 32.

Lemma parses_rps_inter_entry raw (e : bool * bool) pos :
  parses raw (hparse_rps_inter_entry BR) pos (fl (fst e) ++ opt_bits (negb (fst e)) (fl (snd e)))
         (fst e, eff_use e).
Proof.
  unfold hparse_rps_inter_entry.
  pread.
  eapply parses_bind_nil.
  { apply (parses_opt_neg raw _ (fst e) _ (snd e) true). intros _. apply parses_flag. }
  cbv beta. apply parses_ret_eq. unfold eff_use. destruct (fst e), (snd e); reflexivity.
Qed.

Lemma parses_rps_entries raw (l : list (N * bool)) n pos :
  n = lenN l -> n <= 16 -> forallb (fun e => fst e <? 32768) l = true ->
  parses raw (rep_n n (bind (rd_ue BR) (fun d => bind (rd_flag BR) (fun u => ret (u32 (u64 (d + 1)), u)))))
         pos (flat_map (fun e => ue_bits (fst e) ++ fl (snd e)) l)
         (map (fun e => (fst e + 1, snd e)) l).
Proof.
  intros Hn Hb Hv.
  apply (parses_rep_n raw _ (fun e : N * bool => ue_bits (fst e) ++ fl (snd e))
           (fun e : N * bool => (fst e + 1, snd e)) l); [exact Hn | unfold loop_bound; lia|].
  intros e pos' Hin. rewrite forallb_forall in Hv. specialize (Hv e Hin).
  preads.
  apply parses_ret_eq. rewrite u64_id, u32_id by lia. reflexivity.
Qed.

Lemma parses_st_rps raw idx num acc prev r pos :
  Forall2 rps_rel acc prev -> lenN prev = idx -> idx <= 64 ->
  hrps_valid prev idx num r = true ->
  parses raw (hparse_st_rps BR idx num acc) pos (ser_hrps idx num r)
         (expected_hrps (derive_one prev idx r) r)
  /\ rps_rel (expected_hrps (derive_one prev idx r) r) (derive_one prev idx r).
Proof.
  intros Hrel Hlen Hidx Hv.
  destruct r as [neg ps | di sg ab fls]; cbn [hrps_valid ser_hrps derive_one expected_hrps] in *.
  - split_all. unfold max_st_pics in *. split.
    + unfold hparse_st_rps.
      eapply parses_bind.
      { apply (parses_opt raw _ (0 <? idx) _ false false). intros _. apply parses_flag. }
      cbv beta.
      replace (if 0 <? idx then false else false) with false by (destruct (0 <? idx); reflexivity).
      cbv iota.
      preads.
      assert (E0 : u8 (lenN neg) = lenN neg) by (unfold u8; apply N.mod_small; lia).
      assert (E1 : u8 (lenN ps) = lenN ps) by (unfold u8; apply N.mod_small; lia).
      assert (E2 : u8 (lenN neg + lenN ps) = lenN neg + lenN ps) by (unfold u8; apply N.mod_small; lia).
      rewrite E0, E1, E2.
      replace ((16 <? lenN neg) || (16 <? lenN ps)) with false by lia.
      pbind ltac:(apply (parses_rps_entries raw neg); [reflexivity | lia | assumption]).
      plast ltac:(apply (parses_rps_entries raw ps); [reflexivity | lia | assumption]).
      apply parses_ret_eq. rewrite !map_map. cbn [fst snd]. reflexivity.
    + unfold rps_rel, d_num_delta. cbn [rps_ndelta d_s0 d_s1]. rewrite !lenN_cumulate. lia.
  - cbv zeta in Hv. split_all. unfold max_st_pics in *.
    set (ref := nth (N.to_nat (idx - (di + 1))) prev (mkRpsD [] [])) in *.
    set (dl := delta_rps_of sg ab) in *.
    assert (Hdl : dl <> 0%Z) by (unfold dl, delta_rps_of, zb; destruct sg; lia).
    destruct (fls_split (d_s0 ref) (d_s1 ref) fls) as (f0 & f1 & last & -> & Hf0 & Hf1).
    { unfold d_num_delta, lenN in *. lia. }
    assert (Hcnt : d_num_delta (derive_rps ref dl (f0 ++ f1 ++ [last]))
                   = countb (map eff_use (f0 ++ f1 ++ [last])))
      by (apply d_num_delta_derive; assumption).
    assert (Hcntu : d_num_used (derive_rps ref dl (f0 ++ f1 ++ [last]))
                    = countb (map fst (f0 ++ f1 ++ [last])))
      by (apply d_num_used_derive; assumption).
    destruct (Forall2_nth_error_nth rps_rel acc prev (N.to_nat (idx - (di + 1))) (mkRpsD [] []) Hrel)
      as (a & Hnth & Ha1 & Ha2).
    { unfold lenN in Hlen. lia. }
    fold ref in Ha1, Ha2.
    split.
    + unfold hparse_st_rps. replace (0 <? idx) with true by lia.
      pread.
      eapply parses_bind.
      { apply (parses_opt raw _ (idx =? num) _ (di + 1) 1). intros _.
        pread. apply parses_ret_eq. rewrite u64_id, u8_id by lia. reflexivity. }
      cbv beta.
      assert (Hd : (if idx =? num then di + 1 else 1) = di + 1).
      { destruct (idx =? num) eqn:E; [reflexivity|]. assert (di = 0) by lia. lia. }
      rewrite Hd.
      replace ((di + 1 =? 0) || (idx <? di + 1)) with false by lia.
      rewrite (fl_u1 sg).
      pbind ltac:(apply parses_rd; pose proof (b2n_lt2 sg); change (2 ^ 1) with 2; lia).
      pread.
      rewrite Hnth, Ha1.
      plast ltac:(apply (parses_rep_n raw _
                           (fun e : bool * bool => fl (fst e) ++ opt_bits (negb (fst e)) (fl (snd e)))
                           (fun e : bool * bool => (fst e, eff_use e)) (f0 ++ f1 ++ [last]));
                  [lia | unfold loop_bound; lia | intros e pos' _; apply parses_rps_inter_entry]).
      apply parses_ret_eq.
      assert (M1 : map snd (map (fun e : bool * bool => (fst e, eff_use e)) (f0 ++ f1 ++ [last]))
                   = map eff_use (f0 ++ f1 ++ [last])) by (rewrite map_map; reflexivity).
      assert (M2 : map fst (map (fun e : bool * bool => (fst e, eff_use e)) (f0 ++ f1 ++ [last]))
                   = map fst (f0 ++ f1 ++ [last])) by (rewrite map_map; reflexivity).
      rewrite M1, M2, <- Hcnt, <- Hcntu.
      assert (Hu : d_num_used (derive_rps ref dl (f0 ++ f1 ++ [last])) < 256).
      { rewrite Hcntu. pose proof (countb_le (map fst (f0 ++ f1 ++ [last]))) as Hle.
        unfold lenN in Hle. rewrite map_length in Hle. fold (lenN (f0 ++ f1 ++ [last])) in Hle. lia. }
      unfold u8. rewrite !N.mod_small by lia. reflexivity.
    + unfold rps_rel. cbn [rps_ndelta]. split; [reflexivity | lia].
Qed.

(* ------------------------------------------------------------------ the loop over all sets *)
Fixpoint exp_from (prev : list rps_derived) (idx : N) (l : list hrps_syntax) : list hrps :=
  match l with
  | [] => []
  | r :: t => let d := derive_one prev idx r in expected_hrps d r :: exp_from (prev ++ [d]) (idx + 1) t
  end.

Lemma parses_rps_loop raw num : forall l idx acc prev pos,
  Forall2 rps_rel acc prev -> lenN prev = idx -> idx + lenN l <= 64 ->
  hrps_list_valid_from prev idx num l = true ->
  parses raw (hparse_rps_loop BR (length l) idx num acc) pos (ser_hrps_list idx num l)
         (acc ++ exp_from prev idx l).
Proof.
  induction l as [|r t IH]; intros idx acc prev pos Hrel Hlen Hb Hv;
    cbn [length hparse_rps_loop ser_hrps_list exp_from hrps_list_valid_from] in *.
  - rewrite app_nil_r. apply parses_ret.
  - apply andb_prop in Hv. destruct Hv as [Hv1 Hv2]. rewrite lenN_cons in Hb. cbv zeta.
    destruct (parses_st_rps raw idx num acc prev r pos Hrel Hlen ltac:(lia) Hv1) as [P R].
    pbind ltac:(exact P).
    eapply parses_bind_peek; [apply parses_get_err|]. cbv beta iota.
    set (d := derive_one prev idx r) in *.
    replace (acc ++ expected_hrps d r :: exp_from (prev ++ [d]) (idx + 1) t)
      with ((acc ++ [expected_hrps d r]) ++ exp_from (prev ++ [d]) (idx + 1) t)
      by (rewrite <- app_assoc; reflexivity).
    apply IH.
    + apply Forall2_app; [exact Hrel | constructor; [exact R | constructor]].
    + rewrite lenN_app, lenN_cons, lenN_nil. lia.
    + lia.
    + exact Hv2.
Qed.

Lemma exp_from_combine : forall l prev done idx, length prev = length done ->
  map (fun p => expected_hrps (fst p) (snd p)) (combine (derive_all_from prev idx l) (done ++ l))
  = map (fun p => expected_hrps (fst p) (snd p)) (combine prev done) ++ exp_from prev idx l.
Proof.
  induction l as [|r t IH]; intros prev done idx Hl; cbn [derive_all_from exp_from].
  - rewrite !app_nil_r. reflexivity.
  - cbv zeta. set (d := derive_one prev idx r).
    replace (done ++ r :: t) with ((done ++ [r]) ++ t) by (rewrite <- app_assoc; reflexivity).
    rewrite IH by (rewrite !app_length; cbn [length]; lia).
    rewrite combine_app_eq by exact Hl. rewrite map_app, <- app_assoc. reflexivity.
Qed.

(* the loop of ParseSPSNALUnit *)
Lemma parses_sps_rps raw (l : list hrps_syntax) pos :
  lenN l <= 64 -> hrps_list_valid_from [] 0 (lenN l) l = true ->
  parses raw (hparse_rps_loop BR (N.to_nat (lenN l)) 0 (lenN l) []) pos (ser_hrps_list 0 (lenN l) l)
         (map (fun p => expected_hrps (fst p) (snd p)) (combine (derive_all l) l)).
Proof.
  intros Hb Hv.
  pose proof (parses_rps_loop raw (lenN l) l 0 [] [] pos (Forall2_nil _) eq_refl ltac:(lia) Hv) as P.
  cbn [app] in P. unfold derive_all.
  pose proof (exp_from_combine l [] [] 0 eq_refl) as E. cbn [app combine map] in E. rewrite E.
  unfold lenN at 1. rewrite Nat2N.id. exact P.
Qed.

End NoDivision.
