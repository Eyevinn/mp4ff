(* C15TieAvcProofs.v — avc.ParseSPSNALUnit / ParsePPSNALUnit / ParseSliceHeader: the parser models of
   C15Model instantiated with the C13 machine model of bits.EBSPReader (ER, started on the escaped NAL
   unit) and with the ideal bit-list reader (BR, started on the same bytes, which it unescapes) return
   the same result, for EVERY byte string raw (all bytes < 256) whose bits hold no run of more than 56
   zero bits, escaped by the emulation-prevention rule of C13Spec.  No axioms. *)
From V.lib Require Import Base.
From V.c13 Require Import C13Spec C13Model C13ReaderProofs.
From V.c15 Require Import C15Model C15TieBaseProofs C15TieRelProofs.

(* what the slice-header parser needs of the parameter sets it is given: the widths it derives from
   them are within the accumulator (every SPS / PPS the parsers return satisfies this: the SPS parser
   rejects log2 values above 12) *)
Definition sps_narrow (s : sps) : bool :=
  (sps_log2_max_frame_num_minus4 s <=? 12) && (sps_log2_max_pic_order_cnt_lsb_minus4 s <=? 12).
Definition pps_narrow (p : pps) : bool := pps_pic_size_in_map_units_minus1 p <? 4294967296.

Lemma bytes_ok_lt256 l : bytes_ok l = true -> Forall lt256 l.
Proof.
  intros H. unfold bytes_ok in H. rewrite forallb_forall in H. apply Forall_forall. intros x Hx.
  specialize (H x Hx). unfold byte_ok in H. unfold lt256. lia.
Qed.

Lemma sps_narrow_w1 (spsmap : N -> option sps) id s :
  (forall id s, spsmap id = Some s -> sps_narrow s = true) -> spsmap id = Some s ->
  sps_log2_max_frame_num_minus4 s + 4 <= 56.
Proof. intros H E. specialize (H _ _ E). unfold sps_narrow in H. apply andb_true_iff in H. lia. Qed.

Lemma sps_narrow_w2 (spsmap : N -> option sps) id s :
  (forall id s, spsmap id = Some s -> sps_narrow s = true) -> spsmap id = Some s ->
  sps_log2_max_pic_order_cnt_lsb_minus4 s + 4 <= 56.
Proof. intros H E. specialize (H _ _ E). unfold sps_narrow in H. apply andb_true_iff in H. lia. Qed.

Lemma pps_narrow_w (ppsmap : N -> option pps) id p r :
  (forall id p, ppsmap id = Some p -> pps_narrow p = true) -> ppsmap id = Some p ->
  N.log2_up (u64 (pps_pic_size_in_map_units_minus1 p + 1) / r + 1) <= 56.
Proof.
  intros H E. specialize (H _ _ E). unfold pps_narrow in H.
  set (x := pps_pic_size_in_map_units_minus1 p) in *.
  assert (Hs : u64 (x + 1) <= 4294967296) by (unfold u64; rewrite N.mod_small; lia).
  assert (Hd : u64 (x + 1) / r <= u64 (x + 1)).
  { destruct r as [|q]; [destruct (u64 (x + 1)); cbn; lia|]. apply N.div_le_upper_bound; [lia|]. nia. }
  set (q := u64 (x + 1) / r) in *. clearbody q.
  apply N.le_trans with 33; [|lia]. apply N.log2_up_le_pow2; [lia|]. change (2 ^ 33) with 8589934592. lia.
Qed.

Section Avc.
  Variable raw : list N.
  Hypothesis raw_ok : Forall lt256 raw.

  (* ---------------------------------------------------------------- shared pieces *)
  Lemma rel_scaling_list st : forall n last next,
    MRel raw st st (read_scaling_list ER n last next) (read_scaling_list BR n last next).
  Proof. induction n as [|n IH]; intros last next; cbn [read_scaling_list]; tie. Qed.
  Local Hint Resolve rel_scaling_list : tie.

  Lemma rel_scaling_lists st : forall cnt i,
    MRel raw st st (read_scaling_lists ER cnt i) (read_scaling_lists BR cnt i).
  Proof. induction cnt as [|c IH]; intros i; cbn [read_scaling_lists]; tie. Qed.
  Local Hint Resolve rel_scaling_lists : tie.

  (* ---------------------------------------------------------------- PPS *)
  Lemma rel_pps_slice_groups st nsg :
    MRel raw st st (parse_pps_slice_groups ER nsg) (parse_pps_slice_groups BR nsg).
  Proof. unfold parse_pps_slice_groups. tie. Qed.
  Local Hint Resolve rel_pps_slice_groups : tie.

  Lemma rel_pps_tail st spsmap spsid :
    MRel raw st st (parse_pps_tail ER spsmap spsid) (parse_pps_tail BR spsmap spsid).
  Proof. unfold parse_pps_tail. tie. Qed.
  Local Hint Resolve rel_pps_tail : tie.

  Lemma rel_pps_pre st : MRel raw st st (parse_pps_pre ER) (parse_pps_pre BR).
  Proof. unfold parse_pps_pre. tie. Qed.
  Local Hint Resolve rel_pps_pre : tie.

  Lemma rel_pps_post st spsmap t : MRel raw st st (parse_pps_post ER spsmap t) (parse_pps_post BR spsmap t).
  Proof. unfold parse_pps_post. tie. Qed.
  Local Hint Resolve rel_pps_post : tie.

  Lemma rel_parse_pps st spsmap : MRel raw st st (parse_pps ER spsmap) (parse_pps BR spsmap).
  Proof. unfold parse_pps. tie. Qed.

  (* ---------------------------------------------------------------- slice header *)
  Lemma rel_rplm st : forall fuel x, MRel raw st st (rplm_loop ER fuel x) (rplm_loop BR fuel x).
  Proof. induction fuel as [|f IH]; intros x; cbn [rplm_loop]; tie. Qed.
  Local Hint Resolve rel_rplm : tie.

  Lemma rel_mmco st : forall fuel x, MRel raw st st (mmco_loop ER fuel x) (mmco_loop BR fuel x).
  Proof. induction fuel as [|f IH]; intros x; cbn [mmco_loop]; tie. Qed.
  Local Hint Resolve rel_mmco : tie.

  Lemma rel_pwt_entry st c : MRel raw st st (pwt_entry ER c) (pwt_entry BR c).
  Proof. unfold pwt_entry. tie. Qed.
  Local Hint Resolve rel_pwt_entry : tie.

  Ltac tie_rd_side ::=
    first [ tie_width
          | (eapply sps_narrow_w1; eassumption) | (eapply sps_narrow_w2; eassumption)
          | (eapply pps_narrow_w; eassumption) ].

  Lemma rel_parse_slice spsmap ppsmap :
    (forall id s, spsmap id = Some s -> sps_narrow s = true) ->
    (forall id p, ppsmap id = Some p -> pps_narrow p = true) ->
    MRel raw true true (parse_slice_header ER spsmap ppsmap) (parse_slice_header BR spsmap ppsmap).
  Proof. intros Hs Hp. unfold parse_slice_header. tie. Qed.

  (* ---------------------------------------------------------------- SPS *)
  (* SetError (invalid aspect_ratio_idc, cpb_cnt_minus1 > 31) leaves only the weak relation: the two
     byte counters read afterwards are dropped by the `if AccError` at the end; the machine's error is
     sticky through parseVUI (Keeps) *)
  Definition Keeps {A} (m : rstate -> res (A * rstate)) : Prop :=
    forall s, rerr s = true -> match m s with Ok (_, s') => rerr s' = true | _ => True end.

  Lemma Keeps_ret {A} (a : A) : Keeps (ret a).
  Proof. intros s H. exact H. Qed.
  Lemma Keeps_fail {A} : @Keeps A fail.
  Proof. intros s H. exact I. Qed.
  Lemma Keeps_oof {A} : @Keeps A out_of_fuel.
  Proof. intros s H. exact I. Qed.
  Lemma Keeps_bind {A B} (m : rstate -> res (A * rstate)) (k : A -> rstate -> res (B * rstate)) :
    Keeps m -> (forall a, Keeps (k a)) -> Keeps (bind m k).
  Proof. intros Hm Hk s H. specialize (Hm s H). unfold bind. destruct (m s) as [[a s1]| | |]; try exact I. apply Hk. exact Hm. Qed.
  Lemma Keeps_rd n : Keeps (rd ER n).
  Proof. intros s H. unfold rd. cbn [r_read ER]. rewrite (read_after_error s n H). exact H. Qed.
  Lemma Keeps_flag : Keeps (rd_flag ER).
  Proof. intros s H. unfold rd_flag, read_flag. cbn [r_flag ER]. unfold read_flag. rewrite (read_after_error s 1 H). exact H. Qed.
  Lemma Keeps_ue : Keeps (rd_ue ER).
  Proof. intros s H. unfold rd_ue. cbn [r_ue ER]. unfold read_ue. rewrite H. exact H. Qed.
  Lemma Keeps_set_err : Keeps (set_err ER).
  Proof. intros s H. reflexivity. Qed.
  Lemma Keeps_rep {A} (body : rstate -> res (A * rstate)) : Keeps body -> forall n, Keeps (rep n body).
  Proof.
    intros Hb n. induction n as [|n IH]; cbn [rep]; [apply Keeps_ret|].
    apply Keeps_bind; [exact Hb|]. intros x. apply Keeps_bind; [exact IH|]. intros t. apply Keeps_ret.
  Qed.
  Lemma Keeps_rep_n {A} n (body : rstate -> res (A * rstate)) : Keeps body -> Keeps (rep_n n body).
  Proof. intros Hb. unfold rep_n. destruct (n <=? loop_bound); [apply Keeps_rep; exact Hb|apply Keeps_oof]. Qed.

  Ltac keeps :=
    repeat first
      [ apply Keeps_ret | apply Keeps_fail | apply Keeps_oof | apply Keeps_rd | apply Keeps_flag | apply Keeps_ue
      | apply Keeps_set_err | apply Keeps_rep_n
      | lazymatch goal with |- Keeps (bind _ _) => apply Keeps_bind; [|intros ?] end
      | lazymatch goal with
        | |- Keeps (if ?c then _ else _) => destruct c
        | |- Keeps (match ?x with _ => _ end) => destruct x
        end
      | progress (cbv beta zeta) ].

  Lemma Keeps_hrd : Keeps (parse_hrd ER).
  Proof. unfold parse_hrd, parse_cpb_entry. keeps. Qed.
  Lemma Keeps_vui beyond : Keeps (parse_vui ER beyond).
  Proof. unfold parse_vui. keeps. all: try apply Keeps_hrd. Qed.

  Lemma rel_cpb st : MRel raw st st (parse_cpb_entry ER) (parse_cpb_entry BR).
  Proof. unfold parse_cpb_entry. tie. Qed.
  Local Hint Resolve rel_cpb : tie.
  Lemma rel_hrd : MRel raw false false (parse_hrd ER) (parse_hrd BR).
  Proof. unfold parse_hrd. tie. Qed.
  Local Hint Resolve rel_hrd : tie.
  Lemma rel_vui beyond : MRel raw false false (parse_vui ER beyond) (parse_vui BR beyond).
  Proof. unfold parse_vui. tie. Qed.
  Local Hint Resolve rel_vui : tie.

  Lemma rel_sps_high st p : MRel raw st st (parse_sps_high ER p) (parse_sps_high BR p).
  Proof. unfold parse_sps_high. tie. Qed.
  Local Hint Resolve rel_sps_high : tie.
  Lemma rel_sps_poc st p : MRel raw st st (parse_sps_poc ER p) (parse_sps_poc BR p).
  Proof. unfold parse_sps_poc. tie. Qed.
  Local Hint Resolve rel_sps_poc : tie.
  Lemma rel_sps_crop st c f w h cr : MRel raw st st (parse_sps_crop ER c f w h cr) (parse_sps_crop BR c f w h cr).
  Proof. unfold parse_sps_crop. tie. Qed.
  Local Hint Resolve rel_sps_crop : tie.

  Lemma err_finish {A B} (m1 : rstate -> res (A * rstate)) m2 (g1 g2 : A -> N -> B) :
    MRel raw false false m1 m2 -> Keeps m1 ->
    forall s b, Sim raw false s b -> rerr s = true ->
    ORel raw false
      (bind m1 (fun v => bind (get_nbytes ER) (fun nb => bind (get_err ER) (fun e => if e then fail else ret (g1 v nb)))) s)
      (bind m2 (fun v => bind (get_nbytes BR) (fun nb => bind (get_err BR) (fun e => if e then fail else ret (g2 v nb)))) b).
  Proof.
    intros Hm Hk s b H He. specialize (Hm s b H). specialize (Hk s He). unfold ORel in Hm.
    unfold bind, get_nbytes, get_err. cbn [r_nbytes r_err ER BR].
    destruct (m1 s) as [[v s1]| | |], (m2 b) as [[v' b1]| | |]; try contradiction; try exact I.
    destruct Hm as [-> S1]. rewrite <- (Sim_err raw false s1 b1 S1), Hk. exact I.
  Qed.

  Lemma rel_vui_part beyond (vp : bool) :
    MRel raw false false (if vp then bind (parse_vui ER beyond) (fun x => ret (Some x)) else ret None)
                         (if vp then bind (parse_vui BR beyond) (fun x => ret (Some x)) else ret None).
  Proof. destruct vp; [|apply MRel_ret]. eapply MRel_bind; [apply rel_vui|]. intros x. apply MRel_ret. Qed.

  Lemma Keeps_vui_part beyond (vp : bool) :
    Keeps (if vp then bind (parse_vui ER beyond) (fun x => ret (Some x)) else ret None).
  Proof. destruct vp; [|apply Keeps_ret]. apply Keeps_bind; [apply Keeps_vui|]. intros x. apply Keeps_ret. Qed.

  Lemma rel_sps_data beyond : MRel raw false false (parse_sps_data ER beyond) (parse_sps_data BR beyond).
  Proof.
    unfold parse_sps_data. tie.
    (* NrBytesBeforeVUI read in an error state *)
    all: try (apply err_finish; [apply rel_vui_part|apply Keeps_vui_part|assumption|assumption]).
    (* NrBytesRead read in an error state *)
    all: unfold bind, get_err; cbn [r_err ER BR];
      match goal with S : Sim raw false ?s ?b, E : rerr ?s = true |- _ =>
        rewrite <- (Sim_err raw false s b S), E end; exact I.
  Qed.
  Local Hint Resolve rel_sps_data : tie.

  Lemma rel_parse_sps beyond : MRel raw false false (parse_sps ER beyond) (parse_sps BR beyond).
  Proof. unfold parse_sps. tie. Qed.
End Avc.

(* ------------------------------------------------------------------ the ties *)
Lemma tie_avc_sps raw beyond :
  bytes_ok raw = true -> zrun_ok raw = true ->
  parse_sps_er beyond (escape raw) = parse_sps_br beyond (escape raw).
Proof.
  intros Hb Hz. unfold parse_sps_er, parse_sps_br.
  apply (MRel_run raw (bytes_ok_lt256 raw Hb) false false); [apply rel_parse_sps|exact Hz].
Qed.

Lemma tie_avc_pps raw spsmap :
  bytes_ok raw = true -> zrun_ok raw = true ->
  parse_pps_er spsmap (escape raw) = parse_pps_br spsmap (escape raw).
Proof.
  intros Hb Hz. unfold parse_pps_er, parse_pps_br.
  apply (MRel_run raw (bytes_ok_lt256 raw Hb) true true); [apply rel_parse_pps|exact Hz].
Qed.

Lemma tie_avc_slice raw spsmap ppsmap :
  bytes_ok raw = true -> zrun_ok raw = true ->
  (forall id s, spsmap id = Some s -> sps_narrow s = true) ->
  (forall id p, ppsmap id = Some p -> pps_narrow p = true) ->
  parse_slice_er spsmap ppsmap (escape raw) = parse_slice_br spsmap ppsmap (escape raw).
Proof.
  intros Hb Hz Hs Hp. unfold parse_slice_er, parse_slice_br.
  apply (MRel_run raw (bytes_ok_lt256 raw Hb) true true); [apply rel_parse_slice; assumption|exact Hz].
Qed.
