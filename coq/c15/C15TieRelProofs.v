(* C15TieRelProofs.v — a relational program logic over the parser monad of C15Model: the same
   parser text instantiated with ER (C13 machine model of bits.EBSPReader) and with BR (ideal
   bit-list reader) computes related outcomes from related reader states.
     MRel st st' m1 m2 : from states related by Sim st, m1 (over ER) and m2 (over BR) end in the same
                         outcome class, with EQUAL values and states related by Sim st'.
   st = true is the strong relation (NrBytesRead agrees also after a failed read), st = false the weak
   one (the only one that survives SetError).  Closed under sequencing, branching on values already
   read, counted loops.  The tactic `tie` walks two instances of one parser text.  No axioms. *)
From V.lib Require Import Base.
From V.c13 Require Import C13Spec C13Model C13Bits C13ReaderProofs.
From V.c15 Require Import C15Model C15TieBaseProofs.

Lemma ceil_log2_from_le fuel : forall i n, i + N.of_nat fuel <= 32 -> ceil_log2_from fuel i n <= 32.
Proof.
  induction fuel as [|f IH]; intros i n H; cbn [ceil_log2_from]; [lia|].
  destruct (n <=? 2 ^ i); [lia|]. apply IH. lia.
Qed.
Lemma ceil_log2_le32 n : ceil_log2 n <= 32.
Proof. unfold ceil_log2. apply ceil_log2_from_le. cbn. lia. Qed.

Section Rel.
  Variable raw : list N.
  Hypothesis raw_ok : Forall lt256 raw.
  Local Notation Sim := (Sim raw).

  Definition ORel {A} (st : bool) (r1 : res (A * rstate)) (r2 : res (A * bstate)) : Prop :=
    match r1, r2 with
    | Ok (a1, s1), Ok (a2, b2) => a1 = a2 /\ Sim st s1 b2
    | Err, Err => True
    | Panic, Panic => True
    | OutOfFuel, OutOfFuel => True
    | _, _ => False
    end.

  Definition MRel {A} (st st' : bool) (m1 : rstate -> res (A * rstate)) (m2 : bstate -> res (A * bstate)) : Prop :=
    forall s b, Sim st s b -> ORel st' (m1 s) (m2 b).

  Lemma MRel_ret {A} st (a : A) : MRel st st (ret a) (ret a).
  Proof. intros s b H. cbn. split; [reflexivity|exact H]. Qed.

  Lemma MRel_fail {A} st st' : @MRel A st st' fail fail.
  Proof. intros s b H. exact I. Qed.

  Lemma MRel_oof {A} st st' : @MRel A st st' out_of_fuel out_of_fuel.
  Proof. intros s b H. exact I. Qed.

  Lemma MRel_panic {A} st st' : @MRel A st st' (fun _ => Panic) (fun _ => Panic).
  Proof. intros s b H. exact I. Qed.

  Lemma MRel_bind {A B} st st1 st2 (m1 : rstate -> res (A * rstate)) m2 (k1 : A -> rstate -> res (B * rstate)) k2 :
    MRel st st1 m1 m2 -> (forall a, MRel st1 st2 (k1 a) (k2 a)) -> MRel st st2 (bind m1 k1) (bind m2 k2).
  Proof.
    intros Hm Hk s b H. specialize (Hm s b H). unfold bind, ORel in *.
    destruct (m1 s) as [[a1 s1]| | |], (m2 b) as [[a2 b2]| | |]; try contradiction; try exact I.
    destruct Hm as [-> H1]. apply (Hk a2 s1 b2 H1).
  Qed.

  Lemma MRel_weaken_pre {A} st st' (m1 : rstate -> res (A * rstate)) m2 : MRel false st' m1 m2 -> MRel st st' m1 m2.
  Proof. intros Hm s b H. apply Hm. apply (Sim_weaken raw st). exact H. Qed.

  Lemma MRel_weaken_post {A} st st' (m1 : rstate -> res (A * rstate)) m2 : MRel st st' m1 m2 -> MRel st false m1 m2.
  Proof.
    intros Hm s b H. specialize (Hm s b H). unfold ORel in *.
    destruct (m1 s) as [[a1 s1]| | |], (m2 b) as [[a2 b2]| | |]; try contradiction; try exact I.
    destruct Hm as [-> H1]. split; [reflexivity|]. apply (Sim_weaken raw st'). exact H1.
  Qed.

  (* ---- the reader operations *)
  (* an operation that cannot fail, simulated step by step *)
  Lemma MRel_op {A} st (f : rstate -> A * rstate) (g : bstate -> A * bstate) :
    (forall s b, Sim st s b -> fst (f s) = fst (g b) /\ Sim st (snd (f s)) (snd (g b))) ->
    MRel st st (fun s => Ok (f s)) (fun b => Ok (g b)).
  Proof.
    intros H s b HS. destruct (H s b HS) as [E S1]. cbn [ORel].
    destruct (f s) as [v s1], (g b) as [v' b1]. split; assumption.
  Qed.

  Lemma MRel_rd st n : n <= 56 -> MRel st st (rd ER n) (rd BR n).
  Proof. intros Hn. apply MRel_op. intros s b. apply (read_sim raw st s b n Hn). Qed.

  Lemma MRel_flag st : MRel st st (rd_flag ER) (rd_flag BR).
  Proof. apply MRel_op. apply (flag_sim raw st). Qed.

  Lemma MRel_ue st : MRel st st (rd_ue ER) (rd_ue BR).
  Proof. apply MRel_op. apply (ue_sim raw st). Qed.

  Lemma MRel_se st : MRel st st (rd_se ER) (rd_se BR).
  Proof. apply MRel_op. apply (se_sim raw st). Qed.

  Lemma MRel_get_err st : MRel st st (get_err ER) (get_err BR).
  Proof. intros s b H. unfold get_err. cbn [r_err ER BR ORel]. split; [apply (Sim_err raw st); exact H|exact H]. Qed.

  Lemma MRel_set_err st : MRel st false (set_err ER) (set_err BR).
  Proof. intros s b H. unfold set_err. cbn [r_seterr ER BR ORel]. split; [reflexivity|]. apply (seterr_sim raw st). exact H. Qed.

  Lemma MRel_nbytes : MRel true true (get_nbytes ER) (get_nbytes BR).
  Proof. intros s b H. unfold get_nbytes. cbn [r_nbytes ER BR ORel]. split; [apply (nbytes_sim raw); exact H|exact H]. Qed.

  (* NrBytesRead under the weak relation: equal from good states; from an error state the
     continuation has to end without a value *)
  Lemma MRel_nbytes_weak {A} (k1 : N -> rstate -> res (A * rstate)) k2 :
    (forall a, MRel false false (k1 a) (k2 a)) ->
    (forall a1 a2 s b, Sim false s b -> rerr s = true -> ORel false (k1 a1 s) (k2 a2 b)) ->
    MRel false false (bind (get_nbytes ER) k1) (bind (get_nbytes BR) k2).
  Proof.
    intros H1 H2 s b H. unfold bind, get_nbytes. cbn [r_nbytes ER BR].
    pose proof H as [Hraw [Hd [[He _]|HG]]].
    - apply H2; assumption.
    - rewrite (nbytes_good raw s b Hraw HG). apply H1. exact H.
  Qed.

  Lemma MRel_more st : MRel st st (rd_more ER) (rd_more BR).
  Proof. apply MRel_op. apply (more_sim raw st). Qed.

  (* `tr <- ReadRbspTrailingBits ;; if tr then fail else k`: every caller gives up on tr = true *)
  Lemma MRel_trailing {A} st st' (k1 : rstate -> res (A * rstate)) k2 :
    MRel st st' k1 k2 ->
    MRel st st' (bind (rd_trailing ER) (fun tr => if tr then fail else k1))
                (bind (rd_trailing BR) (fun tr => if tr then fail else k2)).
  Proof.
    intros Hk s b H. unfold bind, rd_trailing. cbn [r_trailing ER BR].
    pose proof (trailing_sim raw st s b H) as [E S1].
    destruct (er_trailing s) as [v s1], (br_trailing b) as [v' b1]. cbn [fst snd] in *. subst v'.
    destruct v; [exact I|]. apply Hk. apply S1. reflexivity.
  Qed.

  (* ---- loops of C15Model *)
  Lemma MRel_rep {A} st (b1 : rstate -> res (A * rstate)) b2 : MRel st st b1 b2 ->
    forall n, MRel st st (rep n b1) (rep n b2).
  Proof.
    intros Hb n. induction n as [|n IH]; cbn [rep]; [apply MRel_ret|].
    eapply MRel_bind; [exact Hb|]. intros x. eapply MRel_bind; [exact IH|]. intros t. apply MRel_ret.
  Qed.

  Lemma MRel_rep_n {A} st n (b1 : rstate -> res (A * rstate)) b2 : MRel st st b1 b2 ->
    MRel st st (rep_n n b1) (rep_n n b2).
  Proof. intros Hb. unfold rep_n. destruct (n <=? loop_bound); [apply MRel_rep; exact Hb|apply MRel_oof]. Qed.

  Lemma MRel_rep_break {A} st (b1 : rstate -> res (A * rstate)) b2 : MRel st st b1 b2 ->
    forall n, MRel st st (rep_break ER n b1) (rep_break BR n b2).
  Proof.
    intros Hb n. induction n as [|n IH]; cbn [rep_break]; [apply MRel_ret|].
    eapply MRel_bind; [apply MRel_get_err|]. intros e. destruct e; [apply MRel_ret|].
    eapply MRel_bind; [exact Hb|]. intros x. eapply MRel_bind; [exact IH|]. intros t. apply MRel_ret.
  Qed.

  Lemma MRel_rep_break_n {A} st n (b1 : rstate -> res (A * rstate)) b2 : MRel st st b1 b2 ->
    MRel st st (rep_break_n ER n b1) (rep_break_n BR n b2).
  Proof. intros Hb. unfold rep_break_n. destruct (n <=? loop_bound); [apply MRel_rep_break; exact Hb|apply MRel_oof]. Qed.

  (* the whole parse: equal results *)
  Lemma MRel_run {A} st st' (m1 : rstate -> res (A * rstate)) m2 :
    MRel st st' m1 m2 -> zrun_ok raw = true -> run m1 (rinit (escape raw)) = run m2 (binit (escape raw)).
  Proof.
    intros Hm Hz. specialize (Hm _ _ (Sim_init raw raw_ok st Hz)). unfold run, ORel in *.
    destruct (m1 _) as [[a1 s1]| | |], (m2 _) as [[a2 b2]| | |]; try contradiction; try reflexivity.
    destruct Hm as [-> _]. reflexivity.
  Qed.
End Rel.

(* ------------------------------------------------------------------ the walk *)
Ltac tie_width := first [ lia | (eapply N.le_trans; [apply ceil_log2_le32|lia]) ].

(* What a file adds: sub-parsers it has related go into the hint database `tie` (found by their head,
   premises closed by assumption); rules that need a tactic of their own, or that take a particular
   sequence of operations as a whole, into tie_sub; width side conditions of Read(n) into tie_rd_side. *)
Create HintDb tie discriminated.
Ltac tie_sub := fail.
Ltac tie_rd_side := tie_width.

(* One rule per shape of the ER-side parser; the last case is a sub-parser, a loop's induction
   hypothesis, or a redex left by an unfolding. *)
Ltac tie_step :=
  lazymatch goal with
  | |- MRel _ _ _ (ret _) _ => apply MRel_ret
  | |- MRel _ _ _ fail _ => apply MRel_fail
  | |- MRel _ _ _ out_of_fuel _ => apply MRel_oof
  | |- MRel _ _ _ (fun _ => Panic) _ => apply MRel_panic
  | |- MRel _ _ _ (rd_flag ER) _ => apply MRel_flag; assumption
  | |- MRel _ _ _ (rd_ue ER) _ => apply MRel_ue; assumption
  | |- MRel _ _ _ (rd_se ER) _ => apply MRel_se; assumption
  | |- MRel _ _ _ (get_err ER) _ => apply MRel_get_err
  | |- MRel _ _ _ (rd_more ER) _ => apply MRel_more; assumption
  | |- MRel _ _ _ (get_nbytes ER) _ => apply MRel_nbytes
  | |- MRel _ _ _ (set_err ER) _ => apply MRel_set_err
  | |- MRel _ _ _ (rd ER _) _ => apply MRel_rd; first [assumption|solve [tie_rd_side]]
  | |- MRel _ _ _ (rep_n _ _) _ => apply MRel_rep_n
  | |- MRel _ _ _ (rep_break_n ER _ _) _ => apply MRel_rep_break_n
  | |- MRel _ _ _ (bind (rd_trailing ER) _) _ => eapply MRel_trailing
  | |- MRel _ false _ (bind (get_nbytes ER) _) _ =>
      eapply MRel_nbytes_weak; [intros ?; cbv beta zeta | intros ? ? ? ? ? ?]
  | |- MRel ?r ?st _ (bind _ _) (bind _ _) =>
      first [ tie_sub | eapply (MRel_bind r st st); [|intros ?; cbv beta zeta] ]
  | |- MRel _ _ _ (if ?c then _ else _) (if ?c then _ else _) => destruct c eqn:?
  | |- MRel _ _ _ (match ?x with _ => _ end) (match ?x with _ => _ end) => destruct x eqn:?
  | |- MRel _ _ _ _ _ =>
      first [ progress (cbv beta zeta) | solve [auto 2 with tie nocore] | tie_sub
            | match goal with H : context [MRel] |- _ => apply H end ]
  end.
Ltac tie := repeat tie_step.
