(* C15HevcSliceProofs.v — hevc.ParseSliceHeader (model, ideal bit reader) applied to the slice NAL
   unit built by the independent serialiser of slice_segment_header() (7.3.6.1) returns the coded
   values; Size = the bytes of the escaped NAL unit occupied by the header incl. byte_alignment(). *)
From V.lib Require Import Base.
From V.c13 Require Import C13Spec C13Model.
From V.c15 Require Import C15Model C15Spec C15BitProofs C15AvcSpsProofs C15AvcPpsProofs
  C15HevcModel C15HevcSpec C15HevcBitProofs C15HevcSpsRpsProofs C15HevcPpsProofs C15HevcSliceBaseProofs
  C15HevcSliceRpsProofs C15HevcSliceInterProofs C15HevcSliceMainProofs C15HevcSliceSizeProofs.

Section NoDivision.
(* nothing in this section divides: lia without its preprocessing of / and mod, which visits every
   hypothesis at every call (dlia, C15HevcBitProofs, is lia with that step) *)
Ltac Zify.zify_convert_to_euclidean_division_equations_flag ::= constr:(false).

Local Notation "x <- m ;; k" := (bind m (fun x => k))
  (at level 61, m at next level, right associativity).

(* ------------------------------------------------------------------ dependent flag, slice_segment_address *)
Lemma parses_slice_seg raw sp pp v pos :
  hsps_valid sp = true -> hslice_valid sp pp v = true ->
  parses raw
    (if negb (hs_first v) then
       dep <- (if sx_dependent_slice_segments_enabled_flag pp then rd_flag BR else ret false) ;;
       let shift := u8 (sx_log2_min_luma_coding_block_size_minus3 sp + 3
                        + sx_log2_diff_max_min_luma_coding_block_size sp) in
       let ctb := if shift <? 64 then 2 ^ shift else 0 in
       if ctb =? 0 then fail else
       let size := u64 (ceil_div (sx_pic_width_in_luma_samples sp) ctb
                        * ceil_div (sx_pic_height_in_luma_samples sp) ctb) in
       a <- rd BR (ceil_log2 size) ;;
       ret (dep, a)
     else ret (false, 0))
    pos
    (opt_bits (negb (hs_first v))
       (opt_bits (sx_dependent_slice_segments_enabled_flag pp) (fl (sx_dependent_slice_segment_flag v))
        ++ u (hs_address_bits sp) (sx_slice_segment_address v)))
    (hs_dep pp v, (if negb (hs_first v) then sx_slice_segment_address v else 0)).
Proof.
  intros Hs Hv.
  destruct (hslice_ctb sp Hs) as (C1 & C2 & C3 & C4 & C5). cbv zeta in C1, C2, C3.
  assert (Ha : sx_slice_segment_address v < 2 ^ hs_address_bits sp)
    by (unfold hslice_valid in Hv; split_all; lia).
  unfold hs_dep. cbv zeta.
  destruct (hs_first v); cbn [negb opt_bits andb]; [apply parses_ret|].
  pread.
  rewrite C1. rewrite C2. cbv iota. rewrite C3.
  rewrite ceil_log2_eq by exact C5. fold (hs_address_bits sp).
  plast ltac:(apply parses_rd; exact Ha).
  apply parses_ret.
Qed.

Lemma parses_slice_mn raw sp pp v pos :
  hsps_valid sp = true -> hpps_valid pp = true -> hslice_valid sp pp v = true ->
  parses raw (if negb (hs_dep pp v) then hparse_slice_main BR (hs_nt v) (expected_hsps sp) (expected_hpps pp)
              else ret hslice_main_zero) pos
         (opt_bits (hs_main pp v) (ser_hslice_main sp pp v)) (exp_main sp pp v).
Proof.
  intros Hs Hp Hv. unfold hs_main at 1.
  destruct (hs_dep pp v) eqn:Hd; cbn [negb opt_bits].
  - apply parses_ret_eq. symmetry. apply exp_main_dep. unfold hs_main. rewrite Hd. reflexivity.
  - apply parses_slice_main; try assumption. unfold hs_main. rewrite Hd. reflexivity.
Qed.

(* ------------------------------------------------------------------ entry points, extension *)
Lemma parses_slice_ep raw sp pp v pos :
  hslice_valid sp pp v = true ->
  parses raw
    (if hs_entry pp then
       n <- rd_ue BR ;;
       if 0 <? n then
         olm <- rd_ue BR ;;
         if 31 <? olm then fail else
         es <- rep_until_err_n BR n (x <- rd BR (u8 olm + 1) ;; ret (u32 x)) ;;
         ret (n, u8 olm, es)
       else ret (n, 0, [])
     else ret (0, 0, []))
    pos
    (opt_bits (hs_entry pp)
       (ue_bits (lenN (sx_entry_point_offset_minus1 v))
        ++ opt_bits (0 <? lenN (sx_entry_point_offset_minus1 v))
             (ue_bits (sx_offset_len_minus1 v)
              ++ flat_map (u (sx_offset_len_minus1 v + 1)) (sx_entry_point_offset_minus1 v))))
    (let ne := if hs_entry pp then lenN (sx_entry_point_offset_minus1 v) else 0 in
     (ne, (if 0 <? ne then sx_offset_len_minus1 v else 0),
      (if hs_entry pp then sx_entry_point_offset_minus1 v else []))).
Proof.
  intros Hv. unfold hslice_valid in Hv. split_all. cbv zeta.
  destruct (hs_entry pp); cbn [opt_bits]; [|apply parses_ret].
  pread.
  destruct (0 <? lenN (sx_entry_point_offset_minus1 v)) eqn:Hn; cbn [opt_bits].
  - pread.
    replace (31 <? sx_offset_len_minus1 v) with false by lia. cbv iota.
    rewrite (u8_id (sx_offset_len_minus1 v)) by lia.
    assert (Hpw : 2 ^ (sx_offset_len_minus1 v + 1) <= 2 ^ 32) by (apply N.pow_le_mono_r; lia).
    change (2 ^ 32) with 4294967296 in Hpw.
    eapply parses_bind_nil; [|apply parses_ret].
    pose proof (parses_rep_until_err_n raw (x <- rd BR (sx_offset_len_minus1 v + 1) ;; ret (u32 x))
                  (u (sx_offset_len_minus1 v + 1)) (fun x : N => x) (sx_entry_point_offset_minus1 v)
                  (lenN (sx_entry_point_offset_minus1 v))) as P.
    rewrite map_id in P. apply P; [reflexivity | unfold loop_bound; lia|].
    intros x pos' Hin.
    match goal with H : forallb _ (sx_entry_point_offset_minus1 v) = true |- _ =>
      rewrite forallb_forall in H; specialize (H x Hin) end.
    plast ltac:(apply parses_rd; lia). apply parses_ret_eq. apply u32_id. lia.
  - apply parses_ret_eq.
    destruct (sx_entry_point_offset_minus1 v); [reflexivity | rewrite lenN_cons in Hn; lia].
Qed.

Lemma parses_slice_ext raw sp pp v pos :
  hslice_valid sp pp v = true ->
  parses raw
    (if sx_slice_segment_header_extension_present_flag pp then
       l <- rd_ue BR ;;
       bs <- rep_n (u16 l) (x <- rd BR 8 ;; ret (u8 x)) ;;
       ret (u16 l, bs)
     else ret (0, []))
    pos
    (opt_bits (sx_slice_segment_header_extension_present_flag pp)
       (ue_bits (lenN (sx_slice_segment_header_extension_data v))
        ++ flat_map (u 8) (sx_slice_segment_header_extension_data v)))
    ((if sx_slice_segment_header_extension_present_flag pp
      then lenN (sx_slice_segment_header_extension_data v) else 0),
     (if sx_slice_segment_header_extension_present_flag pp
      then sx_slice_segment_header_extension_data v else [])).
Proof.
  intros Hv. unfold hslice_valid in Hv. split_all.
  destruct (sx_slice_segment_header_extension_present_flag pp); cbn [opt_bits]; [|apply parses_ret].
  pread.
  rewrite (u16_id (lenN _)) by lia.
  eapply parses_bind_nil; [|apply parses_ret].
  pose proof (parses_rep_n raw (x <- rd BR 8 ;; ret (u8 x)) (u 8) (fun x : N => x)
                (sx_slice_segment_header_extension_data v)
                (lenN (sx_slice_segment_header_extension_data v))) as P.
  rewrite map_id in P. apply P; [reflexivity | unfold loop_bound; lia|].
  intros x pos' Hin.
  match goal with H : forallb _ (sx_slice_segment_header_extension_data v) = true |- _ =>
    rewrite forallb_forall in H; specialize (H x Hin) end.
  plast ltac:(apply parses_rd; change (2 ^ 8) with 256; lia). apply parses_ret_eq. apply u8_id. lia.
Qed.

(* ------------------------------------------------------------------ byte_alignment(), Size *)
Lemma slice_tail {A} raw D n pos (K : N -> bstate -> res (A * bstate)) :
  pos = n ->
  run (ab <- rd_flag BR ;;
       if negb ab then fail else
       u0 <- halign_loop BR br_bib 9 ;;
       e <- get_err BR ;;
       if e then fail else
       bind (get_nbytes BR) K)
      (mkB raw (trailing_bits n ++ D) pos false)
  = run (K (nbytes_at raw (n + 1 + (8 - (n + 1) mod 8) mod 8)))
        (mkB raw D (n + 1 + (8 - (n + 1) mod 8) mod 8) false).
Proof.
  intros ->. unfold trailing_bits.
  change ((true :: repeat false (N.to_nat ((8 - (n + 1) mod 8) mod 8))) ++ D)
    with (fl true ++ (repeat false (N.to_nat ((8 - (n + 1) mod 8) mod 8)) ++ D)).
  unfold run.
  rewrite (bind_parses raw _ _ n (fl true) true _ (parses_flag raw true n)).
  cbn [negb]. cbv iota. rewrite lenN_fl.
  unfold bind at 1.
  rewrite halign_ok by (rewrite ?N2Nat.id; dlia).
  rewrite N2Nat.id.
  unfold bind at 1. unfold get_err at 1. cbn [r_err BR berr]. cbv iota.
  unfold bind at 1. unfold get_nbytes at 1. cbn [r_nbytes BR]. unfold br_nbytes. cbn [berr braw bpos].
  reflexivity.
Qed.

Lemma hslice_size_bits_eq sp pp v :
  hslice_size_bits sp pp v
  = lenN (hslice_hdr_bits sp pp v) + 1 + (8 - (lenN (hslice_hdr_bits sp pp v) + 1) mod 8) mod 8.
Proof.
  unfold hslice_size_bits, trailing_bits. rewrite lenN_cons, lenN_repeat, N2Nat.id. lia.
Qed.

(* ------------------------------------------------------------------ the NAL unit *)
Lemma hevc_slice_sz spsmap ppsmap sp pp v :
  hsps_valid sp = true -> hpps_valid pp = true -> hslice_valid sp pp v = true ->
  ppsmap (sx_slice_pic_parameter_set_id v) = Some (expected_hpps pp) ->
  spsmap (sx_pps_seq_parameter_set_id pp) = Some (expected_hsps sp) ->
  nbytes_at (hraw_slice sp pp v) (hslice_size_bits sp pp v) < 4294967296 ->
  hparse_slice_br spsmap ppsmap (hnalu_slice sp pp v) = Ok (expected_hslice sp pp v).
Proof.
  intros Hs Hp Hv Hpm Hsm Hsz.
  assert (Hv' := Hv). unfold hslice_valid in Hv'. split_all.
  assert (Hid : sx_slice_pic_parameter_set_id v <= 63) by (destruct (hpps_valid_ids pp Hp); lia).
  destruct (hnal_header_u16 (hs_nt v) (sx_sl_nuh_layer_id v) (sx_sl_nuh_temporal_id_plus1 v))
    as (Hh & Hlt & Hty); [lia | lia | lia |].
  unfold hparse_slice_br. rewrite binit_hslice.
  set (raw := hraw_slice sp pp v) in *.
  set (D := bits_of_bytes (sx_slice_segment_data v)).
  set (n := lenN (hslice_hdr_bits sp pp v)).
  change (runs_to raw (hparse_slice BR br_bib spsmap ppsmap) 0 (hslice_hdr_bits sp pp v)
                  (trailing_bits n ++ D) (expected_hslice sp pp v)).
  unfold hslice_hdr_bits, ser_hslice_header, hparse_slice. rewrite Hh.
  rbind ltac:(apply parses_rd; exact Hlt).
  rewrite Hty. fold (hs_irap v).
  rread.
  rbind ltac:(apply (parses_opt raw _ (hs_irap v) _ (sx_no_output_of_prior_pics_flag v) false);
              intros _; apply parses_flag).
  rread.
  rewrite (u32_id (sx_slice_pic_parameter_set_id v)) by lia. rewrite Hpm. cbv iota.
  rewrite epp_sps_id, Hsm. cbv iota.
  esp_fields.
  rbind ltac:(apply (parses_slice_seg raw sp pp v); assumption).
  rbind ltac:(apply (parses_slice_mn raw sp pp v); assumption).
  unfold exp_main. cbv beta iota zeta.
  rbind ltac:(apply (parses_slice_ep raw sp pp v); assumption).
  eapply runs_bind_t; [apply parses_t_of; apply (parses_slice_ext raw sp pp v); assumption|].
  cbv beta iota zeta. cbn [fst snd].
  erewrite slice_tail.
  2:{ subst n. unfold hslice_hdr_bits, ser_hslice_header. rewrite Hh. rewrite !lenN_app. lia. }
  unfold run, ret. f_equal.
  subst n. rewrite <- hslice_size_bits_eq. rewrite (u32_id _ Hsz).
  reflexivity.
Qed.

Lemma hevc_slice spsmap ppsmap sp pp v :
  hsps_valid sp = true -> hpps_valid pp = true -> hslice_valid sp pp v = true ->
  ppsmap (sx_slice_pic_parameter_set_id v) = Some (expected_hpps pp) ->
  spsmap (sx_pps_seq_parameter_set_id pp) = Some (expected_hsps sp) ->
  hparse_slice_br spsmap ppsmap (hnalu_slice sp pp v) = Ok (expected_hslice sp pp v).
Proof.
  intros Hs Hp Hv Hpm Hsm.
  apply hevc_slice_sz; try assumption. apply hslice_size_lt; assumption.
Qed.

End NoDivision.
