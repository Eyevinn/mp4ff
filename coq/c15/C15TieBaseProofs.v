(* C15TieBaseProofs.v — the C13 model of bits.EBSPReader (instance ER of C15Model: value/n/pos
   accumulator over the ESCAPED bytes, emulation prevention removed on the fly, 64-bit words,
   sticky error, NrBytesRead = position in the escaped stream) simulates the ideal bit-list reader
   BR (bit list of the unescaped bytes, no width limits, byte position recomputed by re-escaping the
   consumed prefix) operation by operation.

     raw        : the unescaped (RBSP + NAL header) bytes, all below 256
     escape raw : what both readers are started on
     zr 0 bits  : no run of more than 56 zero bits (an Exp-Golomb prefix of up to 56 zero bits is
                  read exactly by the 64-bit machine; beyond that Go's `1 << lz` / Read(lz) wrap)

   Sim st s b : either both readers carry the sticky error (st = true: and the machine has consumed
   the whole input, which is what the ideal reader reports then), or both are error free, the
   machine's pending bits ++ unescaped rest are the ideal reader's remaining bits, and the machine's
   byte position is the length of the escaped prefix that holds the consumed bits.
   No axioms. *)
From V.lib Require Import Base.
From V.c13 Require Import C13Spec C13Model C13Bits C13EscProofs C13ReaderProofs.
From V.c15 Require Import C15Model C15Spec C15BitProofs.

(* ------------------------------------------------------------------ vocabulary *)
Lemma bits_of_byte_from_eq k v : bits_of_byte_from k v = bits_of k v.
Proof. induction k as [|k IH]; cbn [bits_of_byte_from bits_of]; [reflexivity|now rewrite IH]. Qed.

Lemma bits_of_bytes_eq l : bits_of_bytes l = bytes_to_bits l.
Proof. unfold bits_of_bytes, bytes_to_bits. apply flat_map_ext. intros a. apply bits_of_byte_from_eq. Qed.

Lemma bval_val_of l : bval l = val_of l.
Proof.
  induction l as [|b t IH]; [reflexivity|]. rewrite bval_cons, IH. destruct b; reflexivity.
Qed.

(* ------------------------------------------------------------------ zero runs *)
(* zr c l: with c zero bits already seen, no run of zero bits in l grows beyond 56 *)
Fixpoint zr (c : N) (l : list bool) : bool :=
  match l with
  | [] => true
  | true :: t => zr 0 t
  | false :: t => (c <? 56) && zr (c + 1) t
  end.
Definition zrun_ok (raw : list N) : bool := zr 0 (bits_of_bytes raw).

Lemma zr_mono l : forall c c', c' <= c -> zr c l = true -> zr c' l = true.
Proof.
  induction l as [|b t IH]; intros c c' Hc H; [reflexivity|].
  destruct b; cbn [zr] in *; [exact H|].
  apply andb_true_iff in H. destruct H as [H1 H2]. apply andb_true_iff. split; [lia|].
  apply (IH (c + 1)); [lia|exact H2].
Qed.

Lemma zr_skipn n : forall l c, zr c l = true -> zr 0 (skipn n l) = true.
Proof.
  induction n as [|n IH]; intros l c H.
  - cbn [skipn]. apply (zr_mono l c); [lia|exact H].
  - destruct l as [|b t]; [reflexivity|]. cbn [skipn]. destruct b; cbn [zr] in H.
    + apply (IH t 0 H).
    + apply andb_true_iff in H. apply (IH t (c + 1)). apply H.
Qed.

Lemma zr_tail c b t : zr c (b :: t) = true -> zr 0 t = true.
Proof. intros H. apply (zr_skipn 1 (b :: t) c H). Qed.

Lemma zr_lz l : forall c k r, c <= 56 -> zr c l = true -> lz_count l = Some (k, r) -> c + k <= 56 /\ zr 0 r = true.
Proof.
  induction l as [|b t IH]; intros c k r Hc H E; [discriminate|].
  destruct b; cbn [lz_count zr] in *.
  - injection E as <- <-. split; [lia|exact H].
  - apply andb_true_iff in H. destruct H as [H1 H2].
    destruct (lz_count t) as [[k' r']|] eqn:E'; [|discriminate]. injection E as <- <-.
    destruct (IH (c + 1) k' r' ltac:(lia) H2 eq_refl) as [A B]. split; [lia|exact B].
Qed.

(* ------------------------------------------------------------------ the escaped stream by position *)
(* state of the emulation-prevention rule after l *)
Fixpoint zst (z : N) (l : list N) : N :=
  match l with
  | [] => z
  | b :: t => if (z =? 2) && (b <=? 3) then zst (if b =? 0 then 1 else 0) t
              else zst (if b =? 0 then z + 1 else 0) t
  end.

Lemma escape_from_app l1 : forall z l2,
  escape_from z (l1 ++ l2) = escape_from z l1 ++ escape_from (zst z l1) l2.
Proof.
  induction l1 as [|b t IH]; intros z l2; [reflexivity|].
  cbn [app escape_from zst]. destruct ((z =? 2) && (b <=? 3)); rewrite IH; reflexivity.
Qed.

Lemma zst_app l1 : forall z l2, zst z (l1 ++ l2) = zst (zst z l1) l2.
Proof.
  induction l1 as [|b t IH]; intros z l2; [reflexivity|].
  cbn [app zst]. destruct ((z =? 2) && (b <=? 3)); apply IH.
Qed.

Lemma zst_le2 l : forall z, z <= 2 -> zst z l <= 2.
Proof.
  induction l as [|b t IH]; intros z Hz; [exact Hz|]. cbn [zst].
  destruct ((z =? 2) && (b <=? 3)) eqn:E.
  - apply IH. destruct (b =? 0); lia.
  - apply IH. destruct (b =? 0) eqn:Eb; [|lia].
    apply andb_false_iff in E. destruct E as [E|E]; [lia|].
    apply N.eqb_eq in Eb. subst b. discriminate E.
Qed.

Lemma firstn_S_skipn {A} (k : nat) (l : list A) b t :
  skipn k l = b :: t -> firstn (S k) l = firstn k l ++ [b] /\ skipn (S k) l = t.
Proof.
  revert l. induction k as [|k IH]; intros l H.
  - cbn [skipn] in H. subst l. split; reflexivity.
  - destruct l as [|a l]; [discriminate|]. cbn [skipn] in H.
    destruct (IH l H) as [E1 E2]. split.
    + change (firstn (S (S k)) (a :: l)) with (a :: firstn (S k) l). rewrite E1. reflexivity.
    + exact E2.
Qed.

Lemma nth_error_app_len {A} (p q : list A) : nth_error (p ++ q) (length p) = nth_error q 0.
Proof. induction p as [|a p IH]; [reflexivity|exact IH]. Qed.

Lemma nth_error_app_len1 {A} (p q : list A) : nth_error (p ++ q) (S (length p)) = nth_error q 1.
Proof. induction p as [|a p IH]; [reflexivity|exact IH]. Qed.

Section Tie.
  Variable raw : list N.
  Hypothesis raw_ok : Forall lt256 raw.

  Lemma escape_from_lt256 l : forall z, Forall lt256 l -> Forall lt256 (escape_from z l).
  Proof.
    induction l as [|b t IH]; intros z H; [constructor|]. inversion H as [|? ? Hb Ht]; subst.
    cbn [escape_from]. destruct ((z =? 2) && (b <=? 3)).
    - constructor; [unfold lt256; lia|]. constructor; [exact Hb|]. apply IH. exact Ht.
    - constructor; [exact Hb|]. apply IH. exact Ht.
  Qed.

  Lemma data_ok : Forall lt256 (escape raw).
  Proof. apply escape_from_lt256. exact raw_ok. Qed.

  (* the machine has fetched k unescaped bytes *)
  Definition PInv (s : rstate) (k : nat) : Prop :=
    (k <= length raw)%nat /\ rpos s = lenN (escape (firstn k raw)) /\ rzc s = zst 0 (firstn k raw).

  Lemma escape_split k :
    escape raw = escape (firstn k raw) ++ escape_from (zst 0 (firstn k raw)) (skipn k raw).
  Proof. unfold escape. rewrite <- escape_from_app, firstn_skipn. reflexivity. Qed.

  Lemma PInv_rrest s k : rdata s = escape raw -> PInv s k -> rrest s = skipn k raw.
  Proof.
    intros Hd [Hk [Hp Hz]]. unfold rrest. rewrite Hd, (escape_split k), Hp. unfold lenN.
    rewrite Nat2N.id, skipn_len_app. rewrite Hz. apply unescape_escape_from.
    apply zst_le2. lia.
  Qed.

  Lemma skipn_nil_firstn k : (k <= length raw)%nat -> skipn k raw = [] -> firstn k raw = raw.
  Proof. intros _ H. rewrite <- (firstn_skipn k raw) at 2. rewrite H, app_nil_r. reflexivity. Qed.

  Lemma skipn_cons_lt k b t : skipn k raw = b :: t -> (S k <= length raw)%nat.
  Proof.
    intros H. destruct (Nat.le_gt_cases (S k) (length raw)) as [L|L]; [exact L|].
    rewrite skipn_all2 in H by lia. discriminate.
  Qed.

  (* the refill loop by position *)
  Lemma fill_pos fuel : forall s n k,
    rdata s = escape raw -> rerr s = false -> PInv s k ->
    let s1 := fill true fuel s n in
    rdata s1 = escape raw /\
    (if rerr s1 then rpos s1 = lenN (escape raw)
     else exists k', PInv s1 k' /\ 8 * N.of_nat k' + rn s = 8 * N.of_nat k + rn s1).
  Proof.
    induction fuel as [|f IH]; intros s n k Hd He HP; cbn [fill]; cbv zeta.
    - split; [exact Hd|]. rewrite He. exists k. split; [exact HP|lia].
    - destruct (rn s <? n).
      2:{ split; [exact Hd|]. rewrite He. exists k. split; [exact HP|lia]. }
      destruct HP as [Hk [Hp Hz]]. unfold byte_at.
      assert (Hpos : N.to_nat (rpos s) = length (escape (firstn k raw))) by (rewrite Hp; unfold lenN; lia).
      assert (Hn0 : nth_error (rdata s) (N.to_nat (rpos s))
                    = nth_error (escape_from (rzc s) (skipn k raw)) 0).
      { rewrite Hd, Hpos, Hz. rewrite (escape_split k) at 1. apply nth_error_app_len. }
      assert (Hn1 : nth_error (rdata s) (N.to_nat (rpos s + 1))
                    = nth_error (escape_from (rzc s) (skipn k raw)) 1).
      { replace (N.to_nat (rpos s + 1)) with (S (length (escape (firstn k raw)))) by lia.
        rewrite Hd, Hz. rewrite (escape_split k) at 1. apply nth_error_app_len1. }
      rewrite Hn0.
      destruct (skipn k raw) as [|b t] eqn:Esk.
      + cbn [escape_from nth_error]. cbn [rdata rerr rpos]. split; [exact Hd|].
        rewrite Hp, (skipn_nil_firstn k Hk Esk). reflexivity.
      + pose proof (skipn_cons_lt k b t Esk) as Hk1.
        destruct (firstn_S_skipn k raw b t Esk) as [Hf1 Hs1].
        (* either way the loop goes on from a state that has fetched b and stands behind it *)
        assert (Hnext : forall pos' zc',
                  let s2 := mkR (rn s + 8) (N.lor (u64 (N.shiftl (rv s) 8)) b) pos' zc' false (rdata s) in
                  PInv s2 (S k) ->
                  rdata (fill true f s2 n) = escape raw /\
                  (if rerr (fill true f s2 n) then rpos (fill true f s2 n) = lenN (escape raw)
                   else exists k', PInv (fill true f s2 n) k' /\ 8 * N.of_nat k' + rn s = 8 * N.of_nat k + rn (fill true f s2 n))).
        { intros pos' zc' s2 HP2. destruct (IH s2 n (S k) Hd eq_refl HP2) as [Hd3 H3]. cbv zeta in H3.
          split; [exact Hd3|].
          destruct (rerr (fill true f s2 n)); [exact H3|].
          destruct H3 as [k' [HP' Hk']]. exists k'. split; [exact HP'|].
          change (rn s2) with (rn s + 8) in Hk'. lia. }
        cbn [escape_from] in *.
        destruct ((rzc s =? 2) && (b <=? 3)) eqn:Ec.
        * cbn [nth_error] in *. apply andb_true_iff in Ec. destruct Ec as [Ez Eb].
          rewrite Ez. cbn [andb]. change (3 =? 3) with true. cbv iota.
          rewrite Hn1. apply Hnext.
          unfold PInv. cbn [rpos rzc]. split; [exact Hk1|].
          rewrite Hf1. unfold escape. rewrite escape_from_app, zst_app. fold (escape (firstn k raw)).
          rewrite <- Hz. cbn [escape_from zst]. rewrite Ez, Eb. cbn [andb].
          split; [|reflexivity]. rewrite lenN_app, Hp, !lenN_cons, lenN_nil. lia.
        * cbn [nth_error] in *.
          assert (Ec2 : (rzc s =? 2) && (b =? 3) = false).
          { apply andb_false_iff in Ec. apply andb_false_iff. destruct Ec as [Ec|Ec]; [left; exact Ec|right; lia]. }
          cbn [andb]. rewrite Ec2. apply Hnext.
          unfold PInv. cbn [rpos rzc]. split; [exact Hk1|].
          rewrite Hf1. unfold escape. rewrite escape_from_app, zst_app. fold (escape (firstn k raw)).
          rewrite <- Hz. cbn [escape_from zst]. rewrite Ec.
          split; [|reflexivity]. rewrite lenN_app, Hp, !lenN_cons, lenN_nil. lia.
  Qed.

  (* ------------------------------------------------------------------ the simulation relation *)
  Definition Good (s : rstate) (b : bstate) : Prop :=
    rerr s = false /\ berr b = false /\ RGood s /\ rbits s = bbits b /\ zr 0 (bbits b) = true
    /\ exists k, PInv s k /\ 8 * N.of_nat k = bpos b + rn s.

  Definition Sim (st : bool) (s : rstate) (b : bstate) : Prop :=
    braw b = raw /\ rdata s = escape raw /\
    ((rerr s = true /\ berr b = true /\ (st = true -> rpos s = lenN (escape raw))) \/ Good s b).

  Lemma Sim_weaken st s b : Sim st s b -> Sim false s b.
  Proof.
    intros [A [B [[C [D _]]|G]]]; (split; [exact A|split; [exact B|]]).
    - left. split; [exact C|split; [exact D|discriminate]].
    - right. exact G.
  Qed.

  Lemma Sim_err st s b : Sim st s b -> rerr s = berr b.
  Proof. intros [_ [_ [[C [D _]]|[C [D _]]]]]; congruence. Qed.

  Lemma read_fuel n : n <= 8 * N.of_nat (S (N.to_nat (n / 8) + 1)).
  Proof. pose proof (N.div_mod n 8 ltac:(lia)). pose proof (N.mod_lt n 8 ltac:(lia)). lia. Qed.

  (* Read(n), n <= 56 *)
  Lemma read_sim st s b n : n <= 56 -> Sim st s b ->
    fst (read s n) = fst (br_read b n) /\ Sim st (snd (read s n)) (snd (br_read b n)).
  Proof.
    intros Hn [Hraw [Hd [[He [Hb Hst]]|HG]]].
    - rewrite (read_after_error s n He). unfold br_read. rewrite Hb. cbn [fst snd].
      split; [reflexivity|]. split; [exact Hraw|split; [exact Hd|left; auto]].
    - destruct HG as [He [Hb [[HI Hn8] [Hbits [Hz [k [HP Hk]]]]]]].
      unfold br_read. rewrite Hb.
      pose proof (read_fuel n) as Hfu.
      destruct (fill_pos (S (N.to_nat (n / 8) + 1)) s n k Hd He HP) as [Hd1 Hpos]. cbv zeta in Hpos.
      destruct (N.leb_spec n (lenN (bbits b))) as [Hle|Hgt].
      + assert (Hlen : n <= N.of_nat (length (rbits s))) by (rewrite Hbits; exact Hle).
        pose proof (read_spec s n HI Hn8 Hn Hlen) as Hsp.
        pose proof (fill_ok (S (N.to_nat (n / 8) + 1)) s n HI Hn ltac:(lia) Hlen ltac:(lia)) as Hf.
        cbv zeta in Hf. destruct Hf as [[He1 _] [Hge _]].
        unfold read, read_gen in *. rewrite He in *.
        set (s1 := fill true (S (N.to_nat (n / 8) + 1)) s n) in *.
        rewrite He1 in *. destruct Hsp as [Hv [Hr [HI' [Hn' Hd']]]]. cbn [fst snd].
        split; [rewrite Hv, Hbits, bval_val_of; reflexivity|].
        split; [exact Hraw|]. split; [cbn [rdata]; exact Hd1|]. right.
        split; [reflexivity|]. split; [reflexivity|]. split; [split; assumption|].
        split; [cbn [bbits]; rewrite Hr, Hbits; reflexivity|].
        split; [cbn [bbits]; apply (zr_skipn _ _ 0 Hz)|].
        destruct Hpos as [k' [[Hk' [Hp' Hz']] Hkk]]. exists k'. split.
        * split; [exact Hk'|]. split; [exact Hp'|exact Hz'].
        * cbn [bpos rn]. lia.
      + assert (Hlen : N.of_nat (length (rbits s)) < n) by (rewrite Hbits; exact Hgt).
        pose proof (fill_fail (S (N.to_nat (n / 8) + 1)) s n HI Hn Hlen ltac:(lia)) as Hf.
        unfold read, read_gen. rewrite He.
        set (s1 := fill true (S (N.to_nat (n / 8) + 1)) s n) in *.
        rewrite Hf in *. cbn [fst snd]. split; [reflexivity|].
        split; [exact Hraw|]. split; [exact Hd1|]. left.
        split; [exact Hf|]. split; [reflexivity|]. intros _. exact Hpos.
  Qed.

  Lemma Sim_good st s b : Sim st s b -> berr b = false -> Good s b.
  Proof. intros [_ [_ [[_ [D _]]|G]]] H; [congruence|exact G]. Qed.

  Lemma Sim_bad st s b : Sim st s b -> berr b = true -> rerr s = true /\ (st = true -> rpos s = lenN (escape raw)).
  Proof. intros [_ [_ [[C [_ E]]|[_ [D _]]]]] H; [split; assumption|congruence]. Qed.

  Lemma Good_Sim st s b : braw b = raw -> rdata s = escape raw -> Good s b -> Sim st s b.
  Proof. intros A B G. split; [exact A|split; [exact B|right; exact G]]. Qed.

  Lemma Sim_raw st s b : Sim st s b -> braw b = raw.
  Proof. intros [A _]. exact A. Qed.
  Lemma Sim_data st s b : Sim st s b -> rdata s = escape raw.
  Proof. intros [_ [A _]]. exact A. Qed.

  (* ReadFlag *)
  Lemma flag_sim st s b : Sim st s b ->
    fst (read_flag s) = fst (br_flag b) /\ Sim st (snd (read_flag s)) (snd (br_flag b)).
  Proof.
    intros H. unfold read_flag, br_flag. pose proof (read_sim st s b 1 ltac:(lia) H) as [E S1].
    destruct (read s 1) as [v s1]. destruct (br_read b 1) as [v' b1]. cbn [fst snd] in *. subst v'.
    split; [reflexivity|exact S1].
  Qed.

  (* one bit read from a good state *)
  Lemma read1_good s b x t :
    Good s b -> braw b = raw -> rdata s = escape raw -> bbits b = x :: t ->
    fst (read s 1) = b2n x /\ Good (snd (read s 1)) (mkB raw t (bpos b + 1) false)
    /\ rdata (snd (read s 1)) = escape raw.
  Proof.
    intros G Hr Hd Hb. pose proof (read_sim true s b 1 ltac:(lia) (Good_Sim true s b Hr Hd G)) as [E S1].
    assert (Hbr : br_read b 1 = (b2n x, mkB raw t (bpos b + 1) false)).
    { unfold br_read. destruct G as [_ [Hbe _]]. rewrite Hbe, Hb, lenN_cons.
      replace (1 <=? 1 + lenN t) with true by lia. change (N.to_nat 1) with 1%nat.
      cbn [firstn skipn]. try rewrite Hr. reflexivity. }
    rewrite Hbr in *. cbn [fst snd] in *. split; [exact E|]. split.
    - apply (Sim_good true _ _ S1). reflexivity.
    - apply (Sim_data true _ _ S1).
  Qed.

  Lemma read1_eof s b :
    Good s b -> braw b = raw -> rdata s = escape raw -> bbits b = [] ->
    fst (read s 1) = 0 /\ rerr (snd (read s 1)) = true /\ rpos (snd (read s 1)) = lenN (escape raw)
    /\ rdata (snd (read s 1)) = escape raw /\ br_read b 1 = (0, bfail b).
  Proof.
    intros G Hr Hd Hb. pose proof (read_sim true s b 1 ltac:(lia) (Good_Sim true s b Hr Hd G)) as [E S1].
    assert (Hbr : br_read b 1 = (0, bfail b)).
    { unfold br_read. destruct G as [_ [Hbe _]]. rewrite Hbe, Hb. reflexivity. }
    rewrite Hbr in *. cbn [fst snd] in *. destruct (Sim_bad true _ _ S1 eq_refl) as [A B].
    split; [exact E|]. split; [exact A|]. split; [apply B; reflexivity|].
    split; [apply (Sim_data true _ _ S1)|reflexivity].
  Qed.

  (* the leading-zero loop of ReadExpGolomb *)
  Lemma lz_sim : forall fuel s b lz,
    Good s b -> braw b = raw -> rdata s = escape raw -> (length (bbits b) < fuel)%nat ->
    match lz_count (bbits b) with
    | None => exists lz' s1, lz_loop fuel s lz = Some (lz', s1) /\ rerr s1 = true
                             /\ rpos s1 = lenN (escape raw) /\ rdata s1 = escape raw
    | Some (k, r) => exists s1, lz_loop fuel s lz = Some (lz + k, s1)
                                /\ Good s1 (mkB raw r (bpos b + k + 1) false) /\ rdata s1 = escape raw
    end.
  Proof.
    induction fuel as [|f IH]; intros s b lz G Hr Hd Hf; [lia|]. cbn [lz_loop].
    destruct (bbits b) as [|x t] eqn:Hb.
    - destruct (read1_eof s b G Hr Hd Hb) as [E [A [B [C _]]]].
      destruct (read s 1) as [v s1]. cbn [fst snd] in *. rewrite A. cbn [lz_count].
      exists lz, s1. repeat split; assumption.
    - destruct (read1_good s b x t G Hr Hd Hb) as [E [G1 D1]].
      destruct (read s 1) as [v s1]. cbn [fst snd] in *. subst v.
      pose proof G1 as [He1 _]. rewrite He1.
      destruct x; cbn [b2n lz_count].
      + change (1 =? 1) with true. cbv iota. exists s1. rewrite !N.add_0_r.
        split; [reflexivity|]. split; [exact G1|exact D1].
      + change (0 =? 1) with false. cbv iota.
        specialize (IH s1 (mkB raw t (bpos b + 1) false) (lz + 1) G1 eq_refl D1
                       ltac:(cbn [bbits]; cbn [length] in Hf; lia)).
        cbn [bbits bpos] in IH.
        destruct (lz_count t) as [[k r]|].
        * destruct IH as [s2 [E2 [G2 D2]]]. exists s2.
          replace (lz + (k + 1)) with (lz + 1 + k) by lia.
          replace (bpos b + (k + 1) + 1) with (bpos b + 1 + k + 1) by lia.
          split; [exact E2|split; [exact G2|exact D2]].
        * exact IH.
  Qed.

  Lemma bval_lt l : bval l < 2 ^ N.of_nat (length l).
  Proof. rewrite bval_val_of. apply val_of_lt. Qed.

  Lemma ue_value k e : k <= 56 -> e < 2 ^ k ->
    u64 (u64 (N.shiftl 1 k + 18446744073709551615) + e) = 2 ^ k - 1 + e.
  Proof.
    intros Hk He. rewrite N.shiftl_1_l. unfold u64.
    assert (Hp : 2 ^ k <= 2 ^ 56) by (apply N.pow_le_mono_r; lia).
    assert (H0 : 0 < 2 ^ k) by apply pow2_pos.
    change (2 ^ 56) with 72057594037927936 in Hp.
    replace (2 ^ k + 18446744073709551615) with ((2 ^ k - 1) + 1 * 18446744073709551616) by lia.
    rewrite N.mod_add by lia. rewrite (N.mod_small (2 ^ k - 1)) by lia.
    rewrite N.mod_small by lia. reflexivity.
  Qed.

  (* ReadExpGolomb *)
  Lemma ue_sim st s b : Sim st s b ->
    fst (read_ue s) = fst (br_ue b) /\ Sim st (snd (read_ue s)) (snd (br_ue b)).
  Proof.
    intros H. pose proof H as [Hraw [Hd [[He [Hb Hst]]|HG]]].
    - unfold read_ue, br_ue. rewrite He, Hb. cbn [fst snd]. split; [reflexivity|exact H].
    - pose proof HG as [He [Hb [[HI Hn8] [Hbits [Hz _]]]]].
      unfold read_ue, br_ue. rewrite He, Hb.
      pose proof (rbits_length_le s Hn8) as Hl. rewrite Hbits in Hl.
      pose proof (lz_sim (S (8 * length (rdata s) + 8)) s b 0 HG Hraw Hd ltac:(lia)) as HL.
      destruct (lz_count (bbits b)) as [[k r]|] eqn:Elz.
      + destruct HL as [s1 [E1 [G1 D1]]]. rewrite E1. pose proof G1 as [He1 _]. rewrite He1.
        destruct (zr_lz _ 0 k r ltac:(lia) Hz Elz) as [Hk56 _].
        rewrite Hraw. rewrite N.add_0_l.
        pose proof (read_sim st s1 (mkB raw r (bpos b + k + 1) false) k ltac:(lia)
                      (Good_Sim st s1 (mkB raw r (bpos b + k + 1) false) eq_refl D1 G1)) as [E2 S2].
        assert (Hev : fst (br_read (mkB raw r (bpos b + k + 1) false) k) < 2 ^ k).
        { unfold br_read. cbn [berr bbits]. destruct (k <=? lenN r); cbn [fst]; [|apply pow2_pos].
          eapply N.lt_le_trans; [apply bval_lt|]. apply N.pow_le_mono_r; [lia|].
          rewrite firstn_length. lia. }
        destruct (read s1 k) as [e s2]. destruct (br_read (mkB raw r (bpos b + k + 1) false) k) as [e' b2].
        cbn [fst snd] in *. subst e'. rewrite (Sim_err _ _ _ S2).
        destruct (berr b2); cbn [fst snd]; (split; [|exact S2]); [reflexivity|].
        apply ue_value; assumption.
      + destruct HL as [lz' [s1 [E1 [A [B C]]]]]. rewrite E1, A. cbn [fst snd].
        split; [reflexivity|]. split; [exact Hraw|]. split; [exact C|]. left.
        split; [exact A|]. split; [reflexivity|]. intros _. exact B.
  Qed.

  (* ReadSignedGolomb *)
  Lemma se_sim st s b : Sim st s b ->
    fst (read_se s) = fst (br_se b) /\ Sim st (snd (read_se s)) (snd (br_se b)).
  Proof.
    intros H. unfold read_se, br_se. pose proof (ue_sim st s b H) as [E S1].
    destruct (read_ue s) as [v s1]. destruct (br_ue b) as [v' b1]. cbn [fst snd] in *. subst v'.
    rewrite (Sim_err _ _ _ S1). destruct (berr b1); [split; [reflexivity|exact S1]|].
    destruct (v mod 2 =? 1); (split; [reflexivity|exact S1]).
  Qed.

  (* SetError: only the weak relation survives (the ideal reader then reports the whole input as
     consumed, the machine keeps its position) *)
  Lemma seterr_sim st s b : Sim st s b ->
    Sim false (rset_err s true) (mkB (braw b) (bbits b) (bpos b) true).
  Proof.
    intros H. split; [cbn [braw]; apply (Sim_raw _ _ _ H)|]. split; [cbn [rset_err rdata]; apply (Sim_data _ _ _ H)|].
    left. split; [reflexivity|]. split; [reflexivity|discriminate].
  Qed.

  (* NrBytesRead *)
  Lemma nbytes_good s b : braw b = raw -> Good s b -> nr_bytes_read s = br_nbytes b.
  Proof.
    intros Hraw [He [Hb [[HI Hn8] [Hbits [Hz [k [[Hk [Hp Hzz]] Hk8]]]]]]].
    unfold nr_bytes_read, br_nbytes, nbytes_at. rewrite Hb, Hp, Hraw.
    replace (N.to_nat ((bpos b + 7) / 8)) with k; [reflexivity|].
    assert ((bpos b + 7) / 8 = N.of_nat k); [|lia].
    symmetry. apply (N.div_unique (bpos b + 7) 8 (N.of_nat k) (7 - rn s)); lia.
  Qed.

  Lemma nbytes_sim s b : Sim true s b -> nr_bytes_read s = br_nbytes b.
  Proof.
    intros H. pose proof H as [Hraw [Hd [[He [Hb Hst]]|HG]]].
    - unfold nr_bytes_read, br_nbytes. rewrite Hb, Hraw. apply Hst. reflexivity.
    - apply nbytes_good; assumption.
  Qed.

  (* NrBitsReadInCurrentByte *)
  Lemma bib_good s b : Good s b -> 8 - rn s = (if bpos b mod 8 =? 0 then 8 else bpos b mod 8).
  Proof.
    intros [He [Hb [[HI Hn8] [Hbits [Hz [k [_ Hk8]]]]]]].
    destruct (N.eqb_spec (bpos b mod 8) 0) as [E|E].
    - assert (rn s mod 8 = 0).
      { replace (rn s) with (8 * N.of_nat k - bpos b) by lia.
        pose proof (N.div_mod (bpos b) 8 ltac:(lia)) as Hdm. rewrite E in Hdm.
        replace (8 * N.of_nat k - bpos b) with ((N.of_nat k - bpos b / 8) * 8) by lia.
        apply N.mod_mul. lia. }
      rewrite N.mod_small in H by lia. lia.
    - pose proof (N.div_mod (bpos b) 8 ltac:(lia)) as Hdm.
      pose proof (N.mod_lt (bpos b) 8 ltac:(lia)) as Hlt.
      assert (Hq : N.of_nat k = bpos b / 8 + 1).
      { assert (8 * (bpos b / 8) < 8 * N.of_nat k) by lia.
        assert (8 * N.of_nat k < 8 * (bpos b / 8) + 16) by lia. lia. }
      lia.
  Qed.

  Lemma existsb_all_zero t : existsb (fun x => x) t = negb (all_zero t).
  Proof. unfold all_zero. induction t as [|x t IH]; [reflexivity|]. cbn [existsb forallb]. rewrite IH. destruct x; reflexivity. Qed.

  (* MoreRbspData *)
  Lemma more_sim st s b : Sim st s b ->
    fst (er_more s) = fst (br_more b) /\ Sim st (snd (er_more s)) (snd (br_more b)).
  Proof.
    intros H. pose proof H as [Hraw [Hd [[He [Hb Hst]]|HG]]].
    - unfold er_more, more_rbsp_data, br_more. rewrite He, Hb. cbn [fst snd]. split; [reflexivity|exact H].
    - pose proof HG as [He [Hb [[HI Hn8] [Hbits [Hz _]]]]].
      unfold er_more, more_rbsp_data, br_more. rewrite He, Hb.
      destruct (bbits b) as [|x t] eqn:Ebb.
      + destruct (read1_eof s b HG Hraw Hd Ebb) as [E [A [B [C _]]]].
        destruct (read s 1) as [v s1]. cbn [fst snd] in *. rewrite A. cbn [fst snd].
        split; [reflexivity|]. split; [exact Hraw|]. split; [exact C|]. left.
        split; [exact A|]. split; [reflexivity|]. intros _. exact B.
      + destruct (read1_good s b x t HG Hraw Hd Ebb) as [E [G1 D1]].
        destruct (read s 1) as [v s1]. cbn [fst snd] in *. subst v.
        pose proof G1 as [He1 [_ [HG1 [Hb1 _]]]]. rewrite He1. cbn [bbits] in Hb1.
        destruct x; cbn [b2n].
        * change (negb (1 =? 1)) with false. cbv iota.
          pose proof (rbits_length_le s Hn8) as Hl. rewrite Hbits in Hl. cbn [length] in Hl.
          rewrite (more_loop_spec t (S (8 * length (rdata s) + 8)) s1 HG1 Hb1 ltac:(lia)). cbn [fst snd].
          split; [apply existsb_all_zero|exact H].
        * change (negb (0 =? 1)) with true. cbv iota. cbn [fst snd]. split; [reflexivity|exact H].
  Qed.

  Lemma bytes_to_bits_nil l : bytes_to_bits l = [] -> l = [].
  Proof. destruct l as [|a l]; [reflexivity|]. intros H. apply (f_equal (@length bool)) in H. rewrite bytes_to_bits_length in H. cbn in H. lia. Qed.

  (* the state after the read that hits the end of the data *)
  Lemma read1_eof_state s b :
    Good s b -> rdata s = escape raw -> bbits b = [] ->
    read s 1 = (0, mkR 0 0 (rpos s) (rzc s) true (rdata s)) /\ rn s = 0 /\ rrest s = []
    /\ 8 * lenN raw = bpos b.
  Proof.
    intros [He [Hb [[HI Hn8] [Hbits [Hz [k [HP Hk8]]]]]]] Hd Ebb.
    rewrite Ebb in Hbits. unfold rbits in Hbits. apply app_eq_nil in Hbits. destruct Hbits as [H1 H2].
    assert (Hrn : rn s = 0).
    { apply (f_equal (@length bool)) in H1. rewrite bits_of_length in H1. cbn in H1. lia. }
    apply bytes_to_bits_nil in H2.
    destruct HI as [_ [Hv _]]. rewrite Hrn in Hv. change (2 ^ 0) with 1 in Hv.
    assert (Hrv : rv s = 0) by lia.
    pose proof (PInv_rrest s k Hd HP) as Hrr. rewrite H2 in Hrr. symmetry in Hrr.
    destruct HP as [Hk [Hp Hzz]].
    pose proof (skipn_nil_firstn k Hk Hrr) as Hfk.
    assert (Hkl : k = length raw).
    { apply (f_equal (@length N)) in Hfk. rewrite firstn_length in Hfk. lia. }
    split; [|split; [exact Hrn|split; [exact H2|unfold lenN; lia]]].
    unfold read, read_gen. rewrite He. change (S (N.to_nat (1 / 8) + 1)) with 2%nat. cbn [fill].
    rewrite Hrn. change (0 <? 1) with true. cbv iota. unfold byte_at.
    rewrite Hfk in Hp.
    assert (Hnone : nth_error (rdata s) (N.to_nat (rpos s)) = None).
    { apply nth_error_None. rewrite Hd, Hp. unfold lenN. lia. }
    rewrite Hnone. cbn [rerr]. rewrite Hrv. reflexivity.
  Qed.

  (* the zero-bit loop of ReadRbspTrailingBits *)
  Lemma trail_sim : forall t fuel s b,
    Good s b -> braw b = raw -> rdata s = escape raw -> bbits b = t -> (length t < fuel)%nat ->
    fst (trail_loop fuel s) = negb (all_zero t) /\
    (all_zero t = true -> Good (snd (trail_loop fuel s)) (mkB raw [] (8 * lenN raw) false)
                          /\ rdata (snd (trail_loop fuel s)) = escape raw).
  Proof.
    induction t as [|x t IH]; intros fuel s b G Hr Hd Hb Hf; (destruct fuel as [|f]; [cbn in Hf; lia|]); cbn [trail_loop].
    - destruct (read1_eof_state s b G Hd Hb) as [E [Hrn [Hrr Hpos]]]. rewrite E. cbn [rerr fst snd].
      split; [reflexivity|]. intros _. unfold rset_err. cbn [rn rv rpos rzc rdata]. split; [|exact Hd].
      destruct G as [He [Hbe [[[_ [_ HF]] _] [_ [_ [k [[Hk [Hp Hzz]] Hk8]]]]]]].
      split; [reflexivity|]. split; [reflexivity|]. split.
      { split; [|cbn [rn]; lia]. split; [reflexivity|]. split; [cbn [rv rn]; lia|exact HF]. }
      split.
      { unfold rbits, rrest. cbn [rn rv rpos rzc rdata bbits]. unfold rrest in Hrr. rewrite Hrr. reflexivity. }
      split; [reflexivity|]. exists k. split; [split; [exact Hk|split; assumption]|].
      cbn [bpos rn]. lia.
    - destruct (read1_good s b x t G Hr Hd Hb) as [E [G1 D1]].
      destruct (read s 1) as [v s1]. cbn [fst snd] in *. subst v.
      pose proof G1 as [He1 _]. rewrite He1.
      destruct x; cbn [b2n all_zero forallb negb andb].
      + change (1 =? 1) with true. cbv iota. cbn [fst]. split; [reflexivity|discriminate].
      + change (0 =? 1) with false. cbv iota.
        apply (IH f s1 (mkB raw t (bpos b + 1) false) G1 eq_refl D1 eq_refl). cbn [length] in Hf. lia.
  Qed.

  (* ReadRbspTrailingBits: the verdict agrees; when it is "no error" the states stay related *)
  Lemma trailing_sim st s b : Sim st s b ->
    fst (er_trailing s) = fst (br_trailing b) /\
    (fst (br_trailing b) = false -> Sim st (snd (er_trailing s)) (snd (br_trailing b))).
  Proof.
    intros H. pose proof H as [Hraw [Hd [[He [Hb Hst]]|HG]]].
    - unfold er_trailing, br_trailing. rewrite He, Hb. cbn [fst snd]. split; [reflexivity|intros _; exact H].
    - pose proof HG as [He [Hb [[HI Hn8] [Hbits [Hz _]]]]].
      unfold er_trailing, br_trailing. rewrite He, Hb.
      destruct (bbits b) as [|x t] eqn:Ebb.
      + destruct (read1_eof s b HG Hraw Hd Ebb) as [E [A [B [C _]]]].
        destruct (read s 1) as [v s1]. cbn [fst snd] in *. rewrite A. cbn [fst snd].
        split; [reflexivity|]. intros _. split; [exact Hraw|]. split; [exact C|]. left.
        split; [exact A|]. split; [reflexivity|]. intros _. exact B.
      + destruct (read1_good s b x t HG Hraw Hd Ebb) as [E [G1 D1]].
        destruct (read s 1) as [v s1]. cbn [fst snd] in *. subst v.
        pose proof G1 as [He1 _]. rewrite He1.
        destruct x; cbn [b2n].
        * change (negb (1 =? 1)) with false. cbv iota.
          pose proof (rbits_length_le s Hn8) as Hl. rewrite Hbits in Hl. cbn [length] in Hl.
          destruct (trail_sim t (S (8 * length (rdata s) + 8)) s1 (mkB raw t (bpos b + 1) false)
                      G1 eq_refl D1 eq_refl ltac:(lia)) as [T1 T2].
          rewrite T1. destruct (all_zero t); cbn [negb fst snd].
          -- split; [reflexivity|]. intros _. destruct (T2 eq_refl) as [G2 D2].
             rewrite Hraw. apply Good_Sim; [reflexivity|exact D2|exact G2].
          -- split; [reflexivity|discriminate].
        * change (negb (0 =? 1)) with true. cbv iota. cbn [fst snd]. split; [reflexivity|discriminate].
  Qed.

  (* both readers started on the escaped NAL unit *)
  Lemma Sim_init st : zrun_ok raw = true -> Sim st (rinit (escape raw)) (binit (escape raw)).
  Proof.
    intros Hz. unfold binit. rewrite unescape_escape. apply Good_Sim; [reflexivity|reflexivity|].
    split; [reflexivity|]. split; [reflexivity|]. split.
    { split; [apply RInv_init; apply data_ok|cbn [rinit rn]; lia]. }
    split. { rewrite rbits_init, unescape_escape. cbn [bbits]. symmetry. apply bits_of_bytes_eq. }
    split; [exact Hz|]. exists 0%nat. split.
    - split; [lia|]. split; reflexivity.
    - reflexivity.
  Qed.
End Tie.
