(* C15InitTheorems.v — property C15 for sample descriptions built from parameter sets
   (mp4 TrakBox.SetAVCDescriptor / SetHEVCDescriptor): tkhd width/height (16.16 fixed point), the
   sample entry's 16-bit width/height = the cropped picture size of the first SPS; the avcC / hvcC
   record = the configuration record of the specification, encoded as laid out in ISO/IEC 14496-15. *)
From V.lib Require Import Base.
From V.c13 Require Import C13Spec C13Model.
From V.c15 Require Import C15Model C15Spec C15AvcConfModel C15AvcConfSpec C15HevcModel C15HevcSpec
  C15HevcConfModel C15HevcConfSpec C15InitModel C15InitSpec C15InitProofs C15Examples C15HevcConfExamples
  C15SliceMapsProofs.
From V.c16 Require Import C16ConfRecModel.

(* strict = "hvc1" (parameter sets required and flagged complete), otherwise "hev1" *)
Theorem C15_hevc_init : forall v strict vps rest ppss inc,
  hsps_valid v = true -> hconf_depths_fit v = true ->
  nalus_fit vps = true -> nalus_fit (hnalu_sps v :: rest) = true -> nalus_fit ppss = true ->
  (strict = true -> inc = true) ->
  hinit_observe hparse_sps_br strict vps (hnalu_sps v :: rest) ppss inc
  = Ok (expected_hinit v strict vps (hnalu_sps v :: rest) ppss inc).
Proof. exact hevc_init. Qed.
Print Assumptions C15_hevc_init.

(* 1920x1088 coded, conformance window -> 1920x1080: 125829120 = 1920 * 65536, 70778880 = 1080 * 65536 *)
Example C15_hevc_init_hyp :
  hsps_valid ex_hconf_sps = true /\ hconf_depths_fit ex_hconf_sps = true
  /\ nalus_fit ex_hconf_vps = true /\ nalus_fit [hnalu_sps ex_hconf_sps] = true /\ nalus_fit ex_hconf_pps = true
  /\ hinit_observe hparse_sps_br true ex_hconf_vps [hnalu_sps ex_hconf_sps] ex_hconf_pps true
     = Ok (expected_hinit ex_hconf_sps true ex_hconf_vps [hnalu_sps ex_hconf_sps] ex_hconf_pps true)
  /\ firstn 4 (expected_hinit ex_hconf_sps true ex_hconf_vps [hnalu_sps ex_hconf_sps] ex_hconf_pps true)
     = [125829120; 70778880; 1920; 1080]%Z.
Proof. vm_compute. repeat split; reflexivity. Qed.

(* strict = "avc1" (parameter sets required), otherwise "avc3".  The last hypothesis: the record fits the
   syntax of 14496-15 5.3.3.1.2 (<= 31 SPS, <= 255 PPS, NAL units of <= 65535 bytes) *)
Theorem C15_avc_init : forall sp strict rest ppss inc,
  sps_valid sp = true -> ainit_fits sp = true -> (strict = true -> inc = true) ->
  confrec_syntax_valid (confrec_of_sps sp (nalu_sps sp :: rest) ppss inc) = true ->
  ainit_observe (parse_sps_br false) strict (nalu_sps sp :: rest) ppss inc
  = Ok (expected_ainit sp (nalu_sps sp :: rest) ppss inc).
Proof. exact avc_init. Qed.
Print Assumptions C15_avc_init.

(* 1914x1080 (cropped): 125435904 = 1914 * 65536 *)
Example C15_avc_init_hyp :
  sps_valid ex_sps = true /\ ainit_fits ex_sps = true
  /\ confrec_syntax_valid (confrec_of_sps ex_sps [nalu_sps ex_sps] [nalu_pps ex_pps] true) = true
  /\ ainit_observe (parse_sps_br false) true [nalu_sps ex_sps] [nalu_pps ex_pps] true
     = Ok (expected_ainit ex_sps [nalu_sps ex_sps] [nalu_pps ex_pps] true)
  /\ firstn 4 (expected_ainit ex_sps [nalu_sps ex_sps] [nalu_pps ex_pps] true)
     = [125435904; 70778880; 1914; 1080]%Z.
Proof. vm_compute. repeat split; reflexivity. Qed.

(* ---- the slice-header parsers see the parse history only through the contents of the maps they are
   handed: PPS parsed earlier against another SPS map, parameter sets replaced or deleted in between,
   several ids alive - nothing of that matters beyond what spsMap / ppsMap hold AT THE CALL.  (In the
   models a parsed PPS is a plain record with no reference to an SPS and the parsers take exactly the
   two maps; C15_avc_slice / C15_hevc_slice are stated for arbitrary maps.)  The correspondence replays
   such histories on the real API. *)
Theorem C15_avc_slice_maps_only : forall sm sm' pm pm' nalu,
  (forall id, pm id = pm' id) -> (forall id, sm id = sm' id) ->
  parse_slice_br sm pm nalu = parse_slice_br sm' pm' nalu
  /\ parse_slice_er sm pm nalu = parse_slice_er sm' pm' nalu.
Proof.
  intros sm sm' pm pm' nalu Hp Hs. unfold parse_slice_br, parse_slice_er, run.
  rewrite (avc_slice_maps_only BR sm sm' pm pm' _ Hp Hs), (avc_slice_maps_only ER sm sm' pm pm' _ Hp Hs).
  split; reflexivity.
Qed.
Print Assumptions C15_avc_slice_maps_only.

Theorem C15_hevc_slice_maps_only : forall sm sm' pm pm' nalu,
  (forall id, pm id = pm' id) -> (forall id, sm id = sm' id) ->
  hparse_slice_br sm pm nalu = hparse_slice_br sm' pm' nalu
  /\ hparse_slice_er sm pm nalu = hparse_slice_er sm' pm' nalu.
Proof.
  intros sm sm' pm pm' nalu Hp Hs. unfold hparse_slice_br, hparse_slice_er, run.
  rewrite (hevc_slice_maps_only BR br_bib sm sm' pm pm' _ Hp Hs), (hevc_slice_maps_only ER er_bib sm sm' pm pm' _ Hp Hs).
  split; reflexivity.
Qed.
Print Assumptions C15_hevc_slice_maps_only.
