(* C15HevcSpsExtProofs.v — the SPS extension part (range / multilayer / 3D / SCC extensions,
   sps_extension_data_flag) of the HEVC SPS: the model parsers on the ideal bit reader return the
   coded values. *)
From V.lib Require Import Base.
From V.c13 Require Import C13Spec C13Model.
From V.c15 Require Import C15Model C15Spec C15BitProofs C15AvcSpsProofs C15AvcPpsProofs
  C15HevcModel C15HevcSpec C15HevcBitProofs.

Section NoDivision.
(* nothing in this section divides: lia without its preprocessing of / and mod, which visits every
   hypothesis at every call (dlia, C15HevcBitProofs, is lia with that step) *)
Ltac Zify.zify_convert_to_euclidean_division_equations_flag ::= constr:(false).

Lemma parses_hsps3d raw d pos : parses raw (hparse_sps_3d BR) pos (ser_hsps3d d) d.
Proof.
  unfold hparse_sps_3d, ser_hsps3d.
  preads.
  apply parses_ret_eq. destruct d; reflexivity.
Qed.

(* one colour component of sps_palette_predictor_initializer *)
Lemma parses_palette_comp raw w (comp : list N) n pos :
  n = lenN comp -> n <= 1024 -> forallb (fun v => v <? 2 ^ w) comp = true ->
  parses raw (rep_until_err_n BR n (rd BR w)) pos (flat_map (u w) comp) comp.
Proof.
  intros Hn Hb Hv.
  pose proof (parses_rep_until_err_n raw (rd BR w) (u w) (fun x : N => x) comp n pos Hn) as P.
  rewrite map_id in P. apply P; [unfold loop_bound; lia|].
  intros x pos' Hin. apply parses_rd. rewrite forallb_forall in Hv. specialize (Hv x Hin). lia.
Qed.

Lemma parses_hspsscc raw chroma bdl bdc x pos : hspsscc_valid chroma bdl bdc x = true ->
  parses raw (hparse_sps_scc BR chroma bdl bdc) pos (ser_hspsscc bdl bdc x) (expected_hspsscc x).
Proof.
  intros Hv. unfold hspsscc_valid in Hv. cbv zeta in Hv. split_all.
  unfold hparse_sps_scc, ser_hspsscc, expected_hspsscc. cbv zeta.
  assert (Emv : u8 (sx_motion_vector_resolution_control_idc x) = sx_motion_vector_resolution_control_idc x)
    by (unfold u8; apply N.mod_small; lia).
  destruct (sx_palette_mode_enabled_flag x) eqn:Hpm; cbn [opt_bits andb] in *.
  2:{ preads. cbn [app].
      pbind ltac:(apply parses_rd; lia). pread.
      apply parses_ret_eq. rewrite Emv. reflexivity. }
  destruct (sx_sps_palette_predictor_initializers_present_flag x) eqn:Hpi; cbn [opt_bits] in *.
  2:{ preads. rewrite <- !app_assoc. preads. cbn [app].
      pbind ltac:(apply parses_rd; lia). pread.
      apply parses_ret_eq. rewrite Emv. reflexivity. }
  split_all.
  destruct (sx_sps_palette_predictor_initializer x) as [|l rest] eqn:Hini;
    [cbn [hd] in *; rewrite ?lenN_nil in *; lia|].
  cbn [hd tl forallb] in *. split_all.
  assert (E64 : u64 (lenN l - 1 + 1) = lenN l) by (unfold u64; rewrite N.mod_small; lia).
  destruct (chroma =? 0) eqn:Hc.
  - destruct rest as [|c1 rest]; [|rewrite !lenN_cons in *; lia].
    cbn [flat_map]. rewrite <- !app_assoc. preads. rewrite E64.
    pbind ltac:(apply (parses_palette_comp raw (bdl + 8) l); [reflexivity | lia | assumption]).
    preads. cbn [app].
    pbind ltac:(apply parses_rd; lia). pread.
    apply parses_ret_eq. rewrite Emv. reflexivity.
  - destruct rest as [|c1 [|c2 [|c3 rest]]]; try (rewrite ?lenN_cons, ?lenN_nil in *; lia).
    cbn [flat_map forallb] in *. split_all. rewrite <- !app_assoc. preads. rewrite E64.
    pbind ltac:(apply (parses_palette_comp raw (bdl + 8) l); [reflexivity | lia | assumption]).
    preads.
    pbind ltac:(apply (parses_palette_comp raw (bdc + 8) c1); [lia | lia | assumption]).
    pread.
    pbind ltac:(apply (parses_palette_comp raw (bdc + 8) c2); [lia | lia | assumption]).
    preads. cbn [app].
    pbind ltac:(apply parses_rd; lia). pread.
    apply parses_ret_eq. rewrite Emv. reflexivity.
Qed.

Lemma parses_t_bind_ret {A B} raw (a : A) (k : A -> bstate -> res (B * bstate)) pos e b T :
  parses_t raw (k a) pos e b T -> parses_t raw (bind (ret a) k) pos e b T.
Proof. intros H. exact H. Qed.

Lemma parses_flags9 raw (l : list bool) pos :
  lenN l = 9 -> parses raw (rep 9 (rd_flag BR)) pos l l.
Proof.
  intros Hl.
  pose proof (parses_rep_len raw (rd_flag BR) fl (fun b : bool => b) l 9 pos) as P.
  rewrite flat_map_fl, map_id in P. apply P; [unfold lenN in Hl; lia|].
  intros. apply parses_flag.
Qed.

Lemma parses_hsps_ext raw v pos n : hsps_valid v = true ->
  parses_t raw (hparse_sps_ext BR (sx_chroma_format_idc v) (sx_bit_depth_luma_minus8 v)
                               (sx_bit_depth_chroma_minus8 v)) pos (ser_hsps_ext v)
    (sx_sps_extension_present_flag v, hsps_ext4 v,
     hsps_ext_on v sx_sps_range_extension_flag,
     (if hsps_ext_on v sx_sps_range_extension_flag then Some (sx_sps_range_extension v) else None),
     hsps_ext_on v sx_sps_multilayer_extension_flag,
     (if hsps_ext_on v sx_sps_multilayer_extension_flag
      then Some (sx_inter_view_mv_vert_constraint_flag v) else None),
     hsps_ext_on v sx_sps_3d_extension_flag,
     (if hsps_ext_on v sx_sps_3d_extension_flag then Some (sx_sps_3d_extension v) else None),
     hsps_ext_on v sx_sps_scc_extension_flag,
     (if hsps_ext_on v sx_sps_scc_extension_flag
      then Some (expected_hspsscc (sx_sps_scc_extension v)) else None),
     (if 0 <? hsps_ext4 v then sx_sps_extension_data_flags v else []))
    (trailing_bits n).
Proof.
  intros Hv.
  unfold hsps_valid in Hv. cbv zeta in Hv. split_all.
  unfold hparse_sps_ext, ser_hsps_ext, hsps_ext_on, hsps_ext4 in *.
  destruct (sx_sps_extension_present_flag v) eqn:Hep; cbn [opt_bits andb] in *.
  - tbind ltac:(apply parses_flag).
    eapply parses_t_bind.
    { preads. plast ltac:(apply parses_rd; lia). apply parses_ret. }
    cbv beta iota zeta.
    assert (E8 : u8 (sx_sps_extension_4bits v) = sx_sps_extension_4bits v)
      by (unfold u8; apply N.mod_small; lia).
    rewrite E8.
    tbind ltac:(apply parses_opt_some; intros _; apply parses_flags9; lia).
    tbind ltac:(apply parses_opt_some; intros _; apply parses_flag).
    tbind ltac:(apply parses_opt_some; intros _; apply parses_hsps3d).
    tbind ltac:(apply parses_opt_some; intros Hs; apply parses_hspsscc; rewrite Hs in *; assumption).
    destruct (0 <? sx_sps_extension_4bits v) eqn:He4; cbn [opt_bits].
    + eapply parses_t_bind_nil.
      { apply (hext_data_loop_ok raw n (sx_sps_extension_data_flags v) ext_fuel [] _).
        unfold ext_fuel, lenN in *. lia. }
      cbn [app]. apply parses_t_ret.
    + eapply parses_t_bind_nil; [apply parses_t_ret|]. apply parses_t_ret.
  - cbn [app]. change (0 <? 0) with false. cbn [opt_bits].
    eapply parses_t_bind_nil; [apply parses_t_of, parses_flag|]. cbv beta iota zeta.
    repeat (apply parses_t_bind_ret; cbv beta iota zeta).
    change (0 <? 0) with false. cbv iota.
    repeat (apply parses_t_bind_ret; cbv beta iota zeta).
    apply parses_t_ret.
Qed.

End NoDivision.
