(* C15AvcConfProofs.v — the model of avc/avcdecoderconfigurationrecord.go and avc/mime.go against the
   independent reading of ISO/IEC 14496-15 5.3.3.1.2 / RFC 6381 in C15AvcConfSpec.v. *)
From V.lib Require Import Base.
From V.c13 Require Import C13Spec C13Model.
From V.c15 Require Import C15Model C15Spec C15BitProofs C15AvcSpsProofs C15AvcVuiProofs
  C15AvcConfModel C15AvcConfSpec.

(* ------------------------------------------------------------------ CreateAVCDecConfRec *)
(* the bit depths the record carries (0 inferred when the profile has no chroma block) *)
Lemma eff_depths_le6 sp : sps_valid sp = true ->
  (if has_chroma_block (profile_idc sp) then bit_depth_luma_minus8 sp else 0) <= 6
  /\ (if has_chroma_block (profile_idc sp) then bit_depth_chroma_minus8 sp else 0) <= 6.
Proof.
  intros Hv. destruct (has_chroma_block (profile_idc sp)) eqn:Hp; [|lia].
  destruct (sps_valid_high sp Hv Hp) as (_ & Hl & Hc & _). split; assumption.
Qed.

Lemma avc_confrec_create sp rest ppss inc :
  sps_valid sp = true ->
  create_confrec_br (nalu_sps sp :: rest) ppss inc
  = Ok (expected_created sp (nalu_sps sp :: rest) ppss inc).
Proof.
  intros Hv. unfold create_confrec_br, create_confrec.
  rewrite (avc_sps_go sp false Hv).
  pose proof (eff_chroma_le3 sp Hv) as Hc. pose proof (compat_byte_lt sp) as Hcb.
  destruct (sps_valid_bounds sp Hv) as (_ & Hpr & Hlv & _). destruct (eff_depths_le6 sp Hv) as [Hd1 Hd2].
  unfold expected_sps_gen. cbv zeta.
  cbn [sps_chroma_format_idc sps_bit_depth_luma_minus8 sps_bit_depth_chroma_minus8 sps_profile sps_compat sps_level].
  replace (3 <? eff_chroma_format_idc sp) with false by lia.
  replace (7 <? (if has_chroma_block (profile_idc sp) then bit_depth_luma_minus8 sp else 0)) with false by lia.
  replace (7 <? (if has_chroma_block (profile_idc sp) then bit_depth_chroma_minus8 sp else 0)) with false by lia.
  cbn [orb].
  rewrite !u8_id by lia.
  unfold expected_created, confrec_of_sps. cbv zeta.
  cbn [AVCProfileIndication profile_compatibility AVCLevelIndication sequenceParameterSetNALUnits
       pictureParameterSetNALUnits chroma_format cr_bit_depth_luma_minus8 cr_bit_depth_chroma_minus8].
  reflexivity.
Qed.

(* ------------------------------------------------------------------ CodecString *)
Fixpoint list_n_eqb (a b : list N) : bool :=
  match a, b with
  | [], [] => true
  | x :: a', y :: b' => (x =? y) && list_n_eqb a' b'
  | _, _ => false
  end.
Lemma list_n_eqb_eq a : forall b, list_n_eqb a b = true -> a = b.
Proof.
  induction a as [|x a IH]; intros [|y b] H; cbn [list_n_eqb] in H; try discriminate; [reflexivity|].
  apply andb_prop in H. destruct H as [H1 H2]. apply N.eqb_eq in H1. subst. f_equal. apply IH. exact H2.
Qed.

Lemma fmt_02X_bytes_all :
  forallb (fun k => list_n_eqb (fmt_02X (N.of_nat k)) (hex_byte (N.of_nat k))) (seq 0 256) = true.
Proof. vm_compute. reflexivity. Qed.

Lemma fmt_02X_byte x : x < 256 -> fmt_02X x = hex_byte x.
Proof.
  intros H. pose proof fmt_02X_bytes_all as A. rewrite forallb_forall in A.
  specialize (A (N.to_nat x)). rewrite N2Nat.id in A. apply list_n_eqb_eq. apply A.
  apply in_seq. lia.
Qed.

Lemma avc_codec_string entry sp beyond s :
  sps_valid sp = true -> parse_sps_br beyond (nalu_sps sp) = Ok s ->
  codec_string entry s = codec_string_spec entry sp.
Proof.
  intros Hv Hs. rewrite (avc_sps_go sp beyond Hv) in Hs. injection Hs as <-.
  pose proof (compat_byte_lt sp) as Hcb.
  destruct (sps_valid_bounds sp Hv) as (_ & Hpr & Hlv & _).
  unfold codec_string, codec_string_spec, expected_sps_gen. cbv zeta. cbn [sps_profile sps_compat sps_level].
  rewrite !fmt_02X_byte by lia. reflexivity.
Qed.

(* ------------------------------------------------------------------ the record layout, byte by byte *)
Definition ser_ps (nalu : list N) : list N := [lenN nalu / 256; lenN nalu mod 256] ++ nalu.
Definition ser_trailer (x : confrec_syntax) : list N :=
  if has_trailer (AVCProfileIndication x)
  then [252 + chroma_format x; 248 + cr_bit_depth_luma_minus8 x; 248 + cr_bit_depth_chroma_minus8 x; 0]
  else [].
Definition ser_confrec_bytes (x : confrec_syntax) : list N :=
  [1; AVCProfileIndication x; profile_compatibility x; AVCLevelIndication x; 255;
   224 + lenN (sequenceParameterSetNALUnits x)]
  ++ flat_map ser_ps (sequenceParameterSetNALUnits x)
  ++ [lenN (pictureParameterSetNALUnits x)]
  ++ flat_map ser_ps (pictureParameterSetNALUnits x)
  ++ ser_trailer x.

(* a byte made of a reserved prefix of a bits and a field of b bits *)
Lemma bob_pair (a b pre v : N) rest (base : N) :
  a + b = 8 -> base = pre * 2 ^ b -> base + v < 256 -> v < 2 ^ b ->
  bytes_of_bits (u a pre ++ u b v ++ rest) = (base + v) :: bytes_of_bits rest.
Proof.
  intros Hab -> Hlt Hv. rewrite app_assoc, (u_app a b pre v Hv), Hab, bytes_of_bits_u8.
  f_equal. apply u8_id. exact Hlt.
Qed.

(* u(16) is two bytes, most significant first *)
Lemma bob_u16 x rest : x < 65536 ->
  bytes_of_bits (u 16 x ++ rest) = (x / 256) :: (x mod 256) :: bytes_of_bits rest.
Proof. intros H. rewrite bytes_of_bits_u16, (u8_id (x / 256)) by lia. reflexivity. Qed.

Lemma bob_bytes : forall l rest, forallb is_byte l = true ->
  bytes_of_bits (flat_map ser_byte_bits l ++ rest) = l ++ bytes_of_bits rest.
Proof.
  induction l as [|b t IH]; intros rest H; cbn [flat_map app]; [reflexivity|].
  cbn [forallb] in H. apply andb_prop in H. destruct H as [Hb Ht]. unfold is_byte in Hb.
  unfold ser_byte_bits at 1. rewrite <- app_assoc, bytes_of_bits_u8, u8_id by lia. rewrite IH by exact Ht. reflexivity.
Qed.

Lemma bob_ps_list : forall l rest, forallb ps_ok l = true ->
  bytes_of_bits (flat_map ser_ps_bits l ++ rest) = flat_map ser_ps l ++ bytes_of_bits rest.
Proof.
  induction l as [|n t IH]; intros rest H; cbn [flat_map app]; [reflexivity|].
  cbn [forallb] in H. apply andb_prop in H. destruct H as [Hn Ht]. unfold ps_ok in Hn.
  apply andb_prop in Hn. destruct Hn as [Hl Hb].
  unfold ser_ps_bits at 1. rewrite <- !app_assoc. rewrite bob_u16 by lia. rewrite bob_bytes by exact Hb.
  rewrite IH by exact Ht. unfold ser_ps. cbn [app]. rewrite <- ?app_assoc. reflexivity.
Qed.

Lemma ser_confrec_eq x : confrec_syntax_valid x = true -> ser_confrec x = ser_confrec_bytes x.
Proof.
  intros Hv. unfold confrec_syntax_valid in Hv. split_all.
  unfold ser_confrec, ser_confrec_bits, ser_confrec_bytes, ser_trailer.
  rewrite !bytes_of_bits_u8, !u8_id by lia.
  rewrite (bob_pair 6 2 63 3 _ 252) by reflexivity.
  rewrite (bob_pair 3 5 7 _ _ 224) by (reflexivity || lia).
  rewrite bob_ps_list by assumption.
  rewrite bytes_of_bits_u8, u8_id by lia.
  rewrite bob_ps_list by assumption.
  cbn [app]. do 6 f_equal. f_equal. f_equal.
  destruct (has_trailer (AVCProfileIndication x)); [|reflexivity].
  rewrite (bob_pair 6 2 63 _ _ 252) by (reflexivity || lia).
  rewrite !(bob_pair 5 3 31 _ _ 248) by (reflexivity || lia).
  rewrite <- (app_nil_r (u 8 0)), bytes_of_bits_u8. reflexivity.
Qed.

(* ------------------------------------------------------------------ DecodeAVCDecConfRec *)
Lemma byte_at_app_r pre l k : byte_at (pre ++ l) (lenN pre + k) = byte_at l k.
Proof.
  unfold byte_at, lenN. replace (N.to_nat (N.of_nat (length pre) + k)) with (length pre + N.to_nat k)%nat by lia.
  apply app_nth2_plus.
Qed.

Lemma slice_app pre n post : slice (pre ++ n ++ post) (lenN pre) (lenN pre + lenN n) = n.
Proof.
  unfold slice, lenN.
  replace (N.to_nat (N.of_nat (length pre) + N.of_nat (length n) - N.of_nat (length pre))) with (length n) by lia.
  rewrite Nat2N.id, skipn_len_app. apply firstn_len_app.
Qed.

Lemma decode_nalus_ser : forall l pre post, forallb ps_ok l = true ->
  decode_nalus (length l) (pre ++ flat_map ser_ps l ++ post) (lenN pre)
  = Ok (l, lenN pre + lenN (flat_map ser_ps l)).
Proof.
  induction l as [|n t IH]; intros pre post Hok; cbn [length decode_nalus flat_map].
  - rewrite lenN_nil, N.add_0_r. reflexivity.
  - cbn [forallb] in Hok. apply andb_prop in Hok. destruct Hok as [Hn Ht].
    unfold ps_ok in Hn. apply andb_prop in Hn. destruct Hn as [Hl _].
    set (L := lenN n) in *.
    set (data := pre ++ (ser_ps n ++ flat_map ser_ps t) ++ post).
    assert (Hd : data = pre ++ [L / 256; L mod 256] ++ (n ++ flat_map ser_ps t ++ post)).
    { unfold data, ser_ps. fold L. rewrite <- !app_assoc. reflexivity. }
    assert (Hlen : lenN data = lenN pre + 2 + L + lenN (flat_map ser_ps t ++ post)).
    { rewrite Hd. rewrite !lenN_app. change (lenN [L / 256; L mod 256]) with 2. fold L. lia. }
    replace (lenN data <? lenN pre + 2) with false by lia.
    assert (B0 : byte_at data (lenN pre) = L / 256).
    { rewrite <- (N.add_0_r (lenN pre)). rewrite Hd. rewrite byte_at_app_r. reflexivity. }
    assert (B1 : byte_at data (lenN pre + 1) = L mod 256).
    { rewrite Hd. rewrite byte_at_app_r. reflexivity. }
    cbv zeta. rewrite B0, B1.
    replace (256 * (L / 256) + L mod 256) with L by lia.
    replace (lenN data <? lenN pre + 2 + L) with false by lia.
    assert (Hd2 : data = (pre ++ [L / 256; L mod 256]) ++ n ++ (flat_map ser_ps t ++ post)).
    { rewrite Hd. rewrite <- !app_assoc. reflexivity. }
    assert (Hp2 : lenN pre + 2 = lenN (pre ++ [L / 256; L mod 256])).
    { rewrite lenN_app. reflexivity. }
    assert (Hd3 : data = (pre ++ [L / 256; L mod 256] ++ n) ++ flat_map ser_ps t ++ post).
    { rewrite Hd. rewrite <- !app_assoc. reflexivity. }
    assert (Hp3 : lenN pre + 2 + L = lenN (pre ++ [L / 256; L mod 256] ++ n)).
    { rewrite !lenN_app. fold L. change (lenN [L / 256; L mod 256]) with 2. lia. }
    rewrite Hd3 at 1. rewrite Hp3. rewrite (IH _ post Ht).
    rewrite <- Hp3. rewrite Hd2. rewrite Hp2. unfold L. rewrite slice_app.
    f_equal. f_equal. rewrite !lenN_app. unfold ser_ps. rewrite !lenN_app.
    change (lenN [lenN n / 256; lenN n mod 256]) with 2. lia.
Qed.

Lemma no_trailer_has_trailer p : no_trailer_profile p = negb (has_trailer p).
Proof.
  unfold no_trailer_profile, has_trailer. cbn [existsb].
  destruct (p =? 66), (p =? 77), (p =? 88); reflexivity.
Qed.

Lemma avc_confrec_decode_bytes x :
  confrec_syntax_valid x = true -> decode_confrec (ser_confrec_bytes x) = Ok (expected_confrec x).
Proof.
  intros Hv. unfold confrec_syntax_valid in Hv. split_all.
  set (p := AVCProfileIndication x) in *. set (spss := sequenceParameterSetNALUnits x) in *.
  set (ppss := pictureParameterSetNALUnits x) in *.
  set (hdr := [1; p; profile_compatibility x; AVCLevelIndication x; 255; 224 + lenN spss]).
  set (data := ser_confrec_bytes x).
  assert (Hd : data = hdr ++ flat_map ser_ps spss ++ ([lenN ppss] ++ flat_map ser_ps ppss ++ ser_trailer x))
    by reflexivity.
  set (pre2 := hdr ++ flat_map ser_ps spss ++ [lenN ppss]).
  assert (Hd2 : data = pre2 ++ flat_map ser_ps ppss ++ ser_trailer x).
  { rewrite Hd. unfold pre2. rewrite <- !app_assoc. reflexivity. }
  set (pre3 := pre2 ++ flat_map ser_ps ppss).
  assert (Hd3 : data = pre3 ++ ser_trailer x).
  { rewrite Hd2. unfold pre3. rewrite <- !app_assoc. reflexivity. }
  assert (Hlen : lenN data = lenN pre3 + lenN (ser_trailer x)) by (rewrite Hd3, lenN_app; reflexivity).
  assert (Hl3 : lenN pre3 = 6 + lenN (flat_map ser_ps spss) + 1 + lenN (flat_map ser_ps ppss)).
  { unfold pre3, pre2. rewrite !lenN_app. change (lenN hdr) with 6. change (lenN [lenN ppss]) with 1. lia. }
  unfold decode_confrec.
  replace (lenN data <? 6) with false by lia.
  change (byte_at data 0) with 1. change (byte_at data 1) with p.
  change (byte_at data 2) with (profile_compatibility x). change (byte_at data 3) with (AVCLevelIndication x).
  change (byte_at data 4) with 255. change (byte_at data 5) with (224 + lenN spss).
  change (negb (1 =? 1)) with false. change (negb (N.land 255 3 =? 3)) with false. cbv iota zeta.
  change 31 with (N.ones 5).
  rewrite (land_low 224 (lenN spss) 5) by (try reflexivity; change (2 ^ 5) with 32; lia).
  unfold lenN at 1. rewrite Nat2N.id.
  change 6 with (lenN hdr) at 1.
  rewrite Hd at 1. rewrite decode_nalus_ser by assumption.
  replace (lenN data <=? lenN hdr + lenN (flat_map ser_ps spss)) with false
    by (change (lenN hdr) with 6; lia).
  assert (Bn : byte_at data (lenN hdr + lenN (flat_map ser_ps spss)) = lenN ppss).
  { rewrite Hd, app_assoc. rewrite <- lenN_app. rewrite <- (N.add_0_r (lenN (hdr ++ _))).
    rewrite byte_at_app_r. reflexivity. }
  rewrite Bn.
  unfold lenN at 1. rewrite Nat2N.id.
  replace (lenN hdr + lenN (flat_map ser_ps spss) + 1) with (lenN pre2)
    by (unfold pre2; rewrite !lenN_app; change (lenN [lenN ppss]) with 1; lia).
  rewrite Hd2 at 1. rewrite decode_nalus_ser by assumption.
  fold pre3. rewrite <- lenN_app. fold pre3.
  rewrite no_trailer_has_trailer.
  unfold expected_confrec. cbv zeta. fold p spss ppss.
  unfold ser_trailer in *. fold p in Hlen, Hd3 |- *.
  destruct (has_trailer p); cbn [negb].
  - change (lenN [252 + chroma_format x; 248 + cr_bit_depth_luma_minus8 x;
                   248 + cr_bit_depth_chroma_minus8 x; 0]) with 4 in Hlen.
    replace (lenN pre3 =? lenN data) with false by lia.
    replace (lenN data <? lenN pre3 + 4) with false by lia.
    assert (B0 : byte_at data (lenN pre3) = 252 + chroma_format x).
    { rewrite <- (N.add_0_r (lenN pre3)). rewrite Hd3, byte_at_app_r. reflexivity. }
    assert (B1 : byte_at data (lenN pre3 + 1) = 248 + cr_bit_depth_luma_minus8 x).
    { rewrite Hd3, byte_at_app_r. reflexivity. }
    assert (B2 : byte_at data (lenN pre3 + 2) = 248 + cr_bit_depth_chroma_minus8 x).
    { rewrite Hd3, byte_at_app_r. reflexivity. }
    assert (B3 : byte_at data (lenN pre3 + 3) = 0).
    { rewrite Hd3, byte_at_app_r. reflexivity. }
    rewrite B0, B1, B2, B3. change (negb (0 =? 0)) with false. cbv iota.
    change 3 with (N.ones 2). change 7 with (N.ones 3).
    rewrite (land_low 252 _ 2) by (try reflexivity; change (2 ^ 2) with 4; lia).
    rewrite !(land_low 248 _ 3) by (try reflexivity; change (2 ^ 3) with 8; lia).
    reflexivity.
  - reflexivity.
Qed.

(* decoding the record laid out bit by bit as in 5.3.3.1.2 *)
Lemma avc_confrec_decode x :
  confrec_syntax_valid x = true -> decode_confrec (ser_confrec x) = Ok (expected_confrec x).
Proof. intros Hv. rewrite (ser_confrec_eq x Hv). apply avc_confrec_decode_bytes. exact Hv. Qed.

(* ------------------------------------------------------------------ Size / Encode *)
Definition syntax_of (a : confrec) : confrec_syntax :=
  mkConfSyn (cr_profile a) (cr_compat a) (cr_level a) (cr_sps a) (cr_pps a) (cr_chroma a) (cr_bdl a) (cr_bdc a).

Lemma fsw_put_ok out cap e bs :
  lenN out + lenN bs <= cap -> fsw_put (mkFsw out cap e) bs = mkFsw (out ++ bs) cap e.
Proof. intros H. unfold fsw_put. cbn [fw_out fw_cap fw_err]. replace (cap <? lenN out + lenN bs) with false by lia. reflexivity. Qed.

Lemma encode_nalus_ok : forall l out cap,
  forallb ps_ok l = true -> lenN out + lenN (flat_map ser_ps l) <= cap ->
  encode_nalus (mkFsw out cap false) l = mkFsw (out ++ flat_map ser_ps l) cap false.
Proof.
  induction l as [|n t IH]; intros out cap Hok Hc.
  - cbn [encode_nalus fold_left flat_map]. rewrite app_nil_r. reflexivity.
  - cbn [forallb] in Hok. apply andb_prop in Hok. destruct Hok as [Hn Ht].
    unfold ps_ok in Hn. apply andb_prop in Hn. destruct Hn as [Hl _].
    change (encode_nalus (mkFsw out cap false) (n :: t))
      with (encode_nalus (fsw_bytes (fsw_u16 (mkFsw out cap false) (lenN n mod 65536)) n) t).
    cbn [flat_map] in Hc |- *. rewrite lenN_app in Hc. unfold ser_ps in Hc at 1. rewrite lenN_app in Hc.
    change (lenN [lenN n / 256; lenN n mod 256]) with 2 in Hc.
    rewrite (N.mod_small (lenN n) 65536) by lia.
    unfold fsw_u16, fsw_bytes.
    rewrite fsw_put_ok by (change (lenN [lenN n / 256; lenN n mod 256]) with 2; lia).
    rewrite fsw_put_ok by (rewrite lenN_app; change (lenN [lenN n / 256; lenN n mod 256]) with 2; lia).
    rewrite IH by (try assumption; rewrite !lenN_app; change (lenN [lenN n / 256; lenN n mod 256]) with 2; lia).
    f_equal. unfold ser_ps. rewrite <- !app_assoc. reflexivity.
Qed.

Lemma nalus_size_eq l : nalus_size l = lenN (flat_map ser_ps l).
Proof.
  unfold nalus_size.
  assert (G : forall l acc, fold_left (fun acc n => acc + (2 + lenN n)) l acc = acc + lenN (flat_map ser_ps l)).
  { induction l0 as [|n t IH]; intros acc; cbn [fold_left flat_map]; [rewrite lenN_nil; lia|].
    rewrite IH. rewrite lenN_app. unfold ser_ps. rewrite lenN_app.
    change (lenN [lenN n / 256; lenN n mod 256]) with 2. lia. }
  rewrite G. lia.
Qed.

Ltac len_side := rewrite ?lenN_app; repeat rewrite lenN_cons; rewrite ?lenN_nil; lia.

Lemma avc_confrec_encode a :
  confrec_syntax_valid (syntax_of a) = true -> cr_num_sps_ext a = 0 -> cr_no_trailing a = false ->
  encode_confrec a = Ok (ser_confrec_bytes (syntax_of a))
  /\ confrec_size a = lenN (ser_confrec_bytes (syntax_of a)).
Proof.
  intros Hv He Hn. unfold confrec_syntax_valid, syntax_of in Hv.
  cbn [AVCProfileIndication profile_compatibility AVCLevelIndication sequenceParameterSetNALUnits
       pictureParameterSetNALUnits chroma_format cr_bit_depth_luma_minus8 cr_bit_depth_chroma_minus8] in Hv.
  split_all.
  assert (Hsz : confrec_size a = lenN (ser_confrec_bytes (syntax_of a))).
  { unfold confrec_size, ser_confrec_bytes, ser_trailer, syntax_of.
    cbn [AVCProfileIndication profile_compatibility AVCLevelIndication sequenceParameterSetNALUnits
         pictureParameterSetNALUnits chroma_format cr_bit_depth_luma_minus8 cr_bit_depth_chroma_minus8].
    rewrite !nalus_size_eq, Hn, no_trailer_has_trailer, !lenN_app.
    destruct (has_trailer (cr_profile a)); cbn [negb]; unfold lenN; cbn [length]; lia. }
  split; [|exact Hsz].
  unfold encode_confrec. rewrite Hsz.
  set (cap := lenN (ser_confrec_bytes (syntax_of a))).
  assert (Hcap : cap = 6 + lenN (flat_map ser_ps (cr_sps a)) + 1 + lenN (flat_map ser_ps (cr_pps a))
                       + (if has_trailer (cr_profile a) then 4 else 0)).
  { unfold cap, ser_confrec_bytes, ser_trailer, syntax_of.
    cbn [AVCProfileIndication profile_compatibility AVCLevelIndication sequenceParameterSetNALUnits
         pictureParameterSetNALUnits chroma_format cr_bit_depth_luma_minus8 cr_bit_depth_chroma_minus8].
    rewrite !lenN_app. destruct (has_trailer (cr_profile a)); unfold lenN; cbn [length]; lia. }
  assert (Hcap2 : 6 + lenN (flat_map ser_ps (cr_sps a)) + 1 + lenN (flat_map ser_ps (cr_pps a)) <= cap)
    by (rewrite Hcap; destruct (has_trailer (cr_profile a)); lia).
  unfold encode_sw, fsw_new, fsw_u8. cbv zeta.
  rewrite (u8_id (lenN (cr_sps a))) by lia. rewrite (u8_id (lenN (cr_pps a))) by lia.
  rewrite N.lor_comm, (lor_low 224 _ 5) by (reflexivity || lia).
  do 6 (rewrite fsw_put_ok by len_side).
  rewrite encode_nalus_ok by (try assumption; len_side).
  rewrite fsw_put_ok by len_side.
  rewrite encode_nalus_ok by (try assumption; len_side).
  rewrite no_trailer_has_trailer, Hn, He.
  unfold ser_confrec_bytes, ser_trailer, syntax_of.
  cbn [AVCProfileIndication profile_compatibility AVCLevelIndication sequenceParameterSetNALUnits
       pictureParameterSetNALUnits chroma_format cr_bit_depth_luma_minus8 cr_bit_depth_chroma_minus8].
  destruct (has_trailer (cr_profile a)); cbn [negb].
  - rewrite (lor_low 252 _ 2), !(lor_low 248 _ 3) by (reflexivity || lia).
    do 4 (rewrite fsw_put_ok by len_side).
    cbn [fw_err fw_out]. f_equal. cbn [app]. rewrite <- !app_assoc. reflexivity.
  - cbn [fw_err fw_out]. f_equal. cbn [app]. rewrite <- !app_assoc, ?app_nil_r. reflexivity.
Qed.

(* create -> encode -> decode for the records the constructor produces *)
Lemma avc_confrec_roundtrip sp rest ppss inc :
  sps_valid sp = true ->
  (inc = true -> lenN (nalu_sps sp :: rest) < 32 /\ lenN ppss < 256
                 /\ forallb ps_ok (nalu_sps sp :: rest) = true /\ forallb ps_ok ppss = true) ->
  let spss := nalu_sps sp :: rest in
  let x := confrec_of_sps sp spss ppss inc in
  exists a bs,
    create_confrec_br spss ppss inc = Ok a
    /\ encode_confrec a = Ok bs /\ bs = ser_confrec x /\ confrec_size a = lenN bs
    /\ decode_confrec bs = Ok (expected_confrec x)
    /\ (has_trailer (profile_idc sp) = true -> decode_confrec bs = Ok a).
Proof.
  intros Hv Hinc. cbv zeta.
  set (spss := nalu_sps sp :: rest). set (x := confrec_of_sps sp spss ppss inc).
  assert (Hx : confrec_syntax_valid x = true).
  { pose proof (eff_chroma_le3 sp Hv) as Hc. pose proof (compat_byte_lt sp) as Hcb.
    destruct (sps_valid_bounds sp Hv) as (_ & Hpr & Hlv & _). destruct (eff_depths_le6 sp Hv) as [Hd1 Hd2].
    unfold confrec_syntax_valid, x, confrec_of_sps. cbv zeta.
    cbn [AVCProfileIndication profile_compatibility AVCLevelIndication sequenceParameterSetNALUnits
         pictureParameterSetNALUnits chroma_format cr_bit_depth_luma_minus8 cr_bit_depth_chroma_minus8].
    destruct inc.
    - destruct (Hinc eq_refl) as (H1 & H2 & H3 & H4). fold spss in H1, H3.
      rewrite H3, H4. repeat (apply andb_true_intro; split); try reflexivity; lia.
    - repeat (apply andb_true_intro; split); try reflexivity; lia. }
  exists (expected_created sp spss ppss inc), (ser_confrec x).
  assert (Hs : syntax_of (expected_created sp spss ppss inc) = x) by reflexivity.
  destruct (avc_confrec_encode (expected_created sp spss ppss inc)) as [He Hz];
    [rewrite Hs; exact Hx | reflexivity | reflexivity |].
  rewrite Hs in He, Hz. rewrite <- (ser_confrec_eq x Hx) in He, Hz.
  split; [apply avc_confrec_create; exact Hv|].
  split; [exact He|]. split; [reflexivity|]. split; [exact Hz|].
  split; [apply avc_confrec_decode; exact Hx|].
  intros Ht. rewrite (avc_confrec_decode x Hx). f_equal.
  unfold expected_confrec, expected_created. cbv zeta.
  replace (has_trailer (AVCProfileIndication x)) with true by (symmetry; exact Ht).
  reflexivity.
Qed.
