(* C15BitProofs.v — the ideal bit reader BR reads back what the descriptors u(n)/ue(v)/se(v)
   of C15Spec wrote; the `parses` relation and its closure lemmas (sequence, repetition). *)
From V.lib Require Import Base.
From V.c13 Require Import C13Spec C13Model C13EscProofs.
From V.c15 Require Import C15Model C15Spec.

(* ------------------------------------------------------------------ lists *)
Lemma firstn_len_app {A} (l r : list A) : firstn (length l) (l ++ r) = l.
Proof. induction l as [|x t IH]; cbn [length firstn app]; [destruct r; reflexivity | now rewrite IH]. Qed.

Lemma skipn_len_app {A} (l r : list A) : skipn (length l) (l ++ r) = r.
Proof. induction l as [|x t IH]; cbn [length skipn app]; [reflexivity | exact IH]. Qed.

Lemma ubits_length n v : length (ubits n v) = n.
Proof. induction n as [|k IH]; cbn [ubits length]; [reflexivity | now rewrite IH]. Qed.

Lemma lenN_u n v : lenN (u n v) = n.
Proof. unfold lenN, u. rewrite ubits_length. lia. Qed.

Lemma lenN_fl b : lenN (fl b) = 1.
Proof. reflexivity. Qed.

Lemma lenN_repeat {A} (x : A) n : lenN (repeat x n) = N.of_nat n.
Proof. unfold lenN. now rewrite repeat_length. Qed.

(* ------------------------------------------------------------------ Go's conversions to uint8 / uint32 / uint64 *)
Lemma u8_id x : x < 256 -> u8 x = x.
Proof. apply N.mod_small. Qed.

Lemma u16_id x : x < 65536 -> u16 x = x.
Proof. apply N.mod_small. Qed.

Lemma u32_id x : x < 4294967296 -> u32 x = x.
Proof. apply N.mod_small. Qed.

Lemma u64_id x : x < 18446744073709551616 -> u64 x = x.
Proof. apply N.mod_small. Qed.

(* ------------------------------------------------------------------ a field packed below the set bits of a byte *)
Lemma land_low (base v : N) (k : N) : v < 2 ^ k -> base mod 2 ^ k = 0 -> N.land (base + v) (N.ones k) = v.
Proof.
  intros Hv Hb. rewrite N.land_ones.
  rewrite N.add_mod by (apply N.pow_nonzero; discriminate).
  rewrite Hb, N.add_0_l, N.mod_mod by (apply N.pow_nonzero; discriminate).
  apply N.mod_small. exact Hv.
Qed.

(* a field below the set bits of base: no common bit, so or is addition (the counterpart of land_low) *)
Lemma lor_low (base v k : N) : v < 2 ^ k -> base mod 2 ^ k = 0 -> N.lor base v = base + v.
Proof.
  intros Hv Hb.
  assert (H : N.land base v = 0).
  { apply N.bits_inj_0. intros n. rewrite N.land_spec.
    destruct (N.lt_ge_cases n k) as [Hn|Hn].
    - rewrite <- (N.mod_pow2_bits_low base k n Hn), Hb, N.bits_0. reflexivity.
    - rewrite <- (N.mod_small v (2 ^ k) Hv), (N.mod_pow2_bits_high v k n Hn). apply andb_false_r. }
  rewrite <- N.lxor_lor by exact H. symmetry. apply N.add_nocarry_lxor. exact H.
Qed.

(* ------------------------------------------------------------------ u(n) *)
Lemma b2n_testbit v k : b2n (N.testbit v k) = (v / 2 ^ k) mod 2.
Proof. rewrite <- N.testbit_spec'. destruct (N.testbit v k); reflexivity. Qed.

Lemma fold_ubits n v a :
  fold_left (fun a b => 2 * a + b2n b) (ubits n v) a = a * 2 ^ N.of_nat n + v mod 2 ^ N.of_nat n.
Proof.
  revert a. induction n as [|k IH]; intros a.
  - cbn [ubits fold_left]. change (N.of_nat 0) with 0. rewrite N.pow_0_r, N.mod_1_r. lia.
  - cbn [ubits fold_left]. rewrite IH, b2n_testbit.
    replace (N.of_nat (S k)) with (N.succ (N.of_nat k)) by lia.
    rewrite N.pow_succ_r'.
    rewrite (N.mul_comm 2 (2 ^ N.of_nat k)).
    rewrite (N.mod_mul_r v (2 ^ N.of_nat k) 2) by (try apply N.pow_nonzero; discriminate).
    lia.
Qed.

Lemma bval_ubits n v : bval (ubits n v) = v mod 2 ^ N.of_nat n.
Proof. unfold bval. rewrite fold_ubits. lia. Qed.

Lemma firstn_ubits_app n v (rest : list bool) : firstn n (ubits n v ++ rest) = ubits n v.
Proof. pattern n at 1. rewrite <- (ubits_length n v). apply firstn_len_app. Qed.

Lemma skipn_ubits_app n v (rest : list bool) : skipn n (ubits n v ++ rest) = rest.
Proof. pattern n at 1. rewrite <- (ubits_length n v). apply skipn_len_app. Qed.

(* a field of a + b bits is its upper a bits followed by its lower b bits *)
Lemma ubits_split : forall a b x, ubits (a + b) x = ubits a (x / 2 ^ N.of_nat b) ++ ubits b x.
Proof.
  induction a as [|a IH]; intros b x; cbn [Nat.add ubits app]; [reflexivity|].
  rewrite IH. f_equal. rewrite N.div_pow2_bits. f_equal. lia.
Qed.

Lemma ubits_mod : forall k n x, (k <= n)%nat -> ubits k (x mod 2 ^ N.of_nat n) = ubits k x.
Proof.
  induction k as [|k IH]; intros n x Hk; cbn [ubits]; [reflexivity|].
  rewrite IH by lia. f_equal. apply N.mod_pow2_bits_low. lia.
Qed.

Lemma u_split n m v : u (n + m) v = u n (v / 2 ^ m) ++ u m v.
Proof. unfold u. rewrite N2Nat.inj_add, ubits_split, N2Nat.id. reflexivity. Qed.

Lemma u_app n m a b : b < 2 ^ m -> u n a ++ u m b = u (n + m) (a * 2 ^ m + b).
Proof.
  intros Hb. assert (Hnz : 2 ^ m <> 0) by (apply N.pow_nonzero; discriminate).
  rewrite u_split. f_equal.
  - f_equal. rewrite N.div_add_l by exact Hnz. rewrite N.div_small by exact Hb. symmetry. apply N.add_0_r.
  - unfold u. rewrite <- (ubits_mod (N.to_nat m) (N.to_nat m) (a * 2 ^ m + b)) by apply Nat.le_refl.
    rewrite N2Nat.id, N.add_comm, N.mod_add by exact Hnz. rewrite N.mod_small by exact Hb. reflexivity.
Qed.

(* the value of a bit list with a carry-in; of a bit list by its first bit *)
Lemma fold_bval l a :
  fold_left (fun a b => 2 * a + b2n b) l a = a * 2 ^ N.of_nat (length l) + bval l.
Proof.
  unfold bval. revert a. induction l as [|b t IH]; intros a; cbn [fold_left length].
  - change (N.of_nat 0) with 0. rewrite N.pow_0_r. lia.
  - rewrite IH. rewrite (IH (2 * 0 + b2n b)). rewrite Nat2N.inj_succ, N.pow_succ_r'. lia.
Qed.

Lemma bval_cons b l : bval (b :: l) = b2n b * 2 ^ N.of_nat (length l) + bval l.
Proof. unfold bval at 1. cbn [fold_left]. rewrite fold_bval. lia. Qed.

Lemma br_read_u raw n v rest pos :
  v < 2 ^ n ->
  br_read (mkB raw (u n v ++ rest) pos false) n = (v, mkB raw rest (pos + n) false).
Proof.
  intros Hv. unfold br_read. cbn [berr bbits braw bpos].
  rewrite lenN_app, lenN_u.
  replace (n <=? n + lenN rest) with true by lia.
  unfold u.
  rewrite firstn_ubits_app, skipn_ubits_app, bval_ubits.
  rewrite N2Nat.id, N.mod_small by exact Hv. reflexivity.
Qed.

(* ------------------------------------------------------------------ ue(v) / se(v) *)
Lemma lz_count_repeat k r :
  lz_count (repeat false k ++ true :: r) = Some (N.of_nat k, r).
Proof.
  induction k as [|j IH]; cbn [repeat app lz_count]; [reflexivity|].
  rewrite IH. f_equal. f_equal. lia.
Qed.

Lemma log2_bounds v : let k := N.log2 (v + 1) in 2 ^ k <= v + 1 /\ v + 1 < 2 * 2 ^ k.
Proof.
  cbv zeta. assert (H0 : 0 < v + 1) by lia. destruct (N.log2_spec (v + 1) H0) as [H1 H2].
  rewrite N.pow_succ_r' in H2. split; assumption.
Qed.

Lemma lenN_ue_bits v : lenN (ue_bits v) = 2 * N.log2 (v + 1) + 1.
Proof.
  unfold ue_bits. rewrite !lenN_app, lenN_repeat, lenN_u. change (lenN [true]) with 1. lia.
Qed.

Lemma br_ue_bits raw v rest pos :
  br_ue (mkB raw (ue_bits v ++ rest) pos false) = (v, mkB raw rest (pos + lenN (ue_bits v)) false).
Proof.
  unfold br_ue. cbn [berr bbits braw bpos].
  rewrite lenN_ue_bits. unfold ue_bits.
  set (k := N.log2 (v + 1)).
  rewrite <- !app_assoc. cbn [app].
  rewrite lz_count_repeat. rewrite N2Nat.id.
  destruct (log2_bounds v) as [H1 H2]. fold k in H1, H2.
  rewrite br_read_u by lia. cbn [berr].
  f_equal; [lia|]. f_equal. lia.
Qed.

Lemma se_code_odd_even k :
  (if se_code k mod 2 =? 1 then Z.of_N ((se_code k + 1) / 2) else (- Z.of_N (se_code k / 2))%Z) = k.
Proof.
  destruct k as [|p|p]; cbn [se_code].
  - reflexivity.
  - replace ((2 * N.pos p - 1) mod 2 =? 1) with true by lia.
    replace ((2 * N.pos p - 1 + 1) / 2) with (N.pos p) by lia. reflexivity.
  - replace (2 * N.pos p mod 2 =? 1) with false by lia.
    replace (2 * N.pos p / 2) with (N.pos p) by lia. reflexivity.
Qed.

Lemma br_se_bits raw k rest pos :
  br_se (mkB raw (se_bits k ++ rest) pos false) = (k, mkB raw rest (pos + lenN (se_bits k)) false).
Proof.
  unfold br_se, se_bits. rewrite br_ue_bits. cbv beta iota. cbn [berr].
  pose proof (se_code_odd_even k) as H.
  destruct (se_code k mod 2 =? 1); rewrite H; reflexivity.
Qed.

Lemma br_flag_fl raw b rest pos :
  br_flag (mkB raw (fl b ++ rest) pos false) = (b, mkB raw rest (pos + 1) false).
Proof.
  unfold br_flag, br_read, fl. cbn [berr bbits braw bpos app].
  replace (1 <=? lenN (b :: rest)) with true by (rewrite lenN_cons; lia).
  cbn. destruct b; reflexivity.
Qed.

(* ------------------------------------------------------------------ sequences *)
(* two sequences that start with the same operation agree if their continuations agree on what it returns *)
Lemma bind_ext {St A B} (m : St -> res (A * St)) (k1 k2 : A -> St -> res (B * St)) s :
  (forall a s', m s = Ok (a, s') -> k1 a s' = k2 a s') -> bind m k1 s = bind m k2 s.
Proof. intros H. unfold bind. destruct (m s) as [[a s']| | |]; [apply H|..]; reflexivity. Qed.

(* ------------------------------------------------------------------ parses *)
Definition parses {A} (raw : list N) (p : bstate -> res (A * bstate)) (pos : N)
           (enc : list bool) (a : A) : Prop :=
  forall rest, p (mkB raw (enc ++ rest) pos false) = Ok (a, mkB raw rest (pos + lenN enc) false).

Lemma parses_ret {A} raw pos (a : A) : parses raw (ret a) pos [] a.
Proof. intros rest. unfold ret. cbn [app]. rewrite lenN_nil, N.add_0_r. reflexivity. Qed.

Lemma parses_ret_eq {A} raw pos (a b : A) : a = b -> parses raw (ret a) pos [] b.
Proof. intros ->. apply parses_ret. Qed.

Lemma parses_bind {A B} raw (p : bstate -> res (A * bstate)) (k : A -> bstate -> res (B * bstate))
      pos e1 e2 a b :
  parses raw p pos e1 a -> parses raw (k a) (pos + lenN e1) e2 b ->
  parses raw (bind p k) pos (e1 ++ e2) b.
Proof.
  intros H1 H2 rest. unfold bind. rewrite <- app_assoc, H1, H2, lenN_app, N.add_assoc. reflexivity.
Qed.

(* last step of a sequence: the continuation consumes nothing *)
Lemma parses_bind_nil {A B} raw (p : bstate -> res (A * bstate)) (k : A -> bstate -> res (B * bstate))
      pos e1 a b :
  parses raw p pos e1 a -> parses raw (k a) (pos + lenN e1) [] b ->
  parses raw (bind p k) pos e1 b.
Proof. intros H1 H2. rewrite <- (app_nil_r e1). eapply parses_bind; eassumption. Qed.

Lemma parses_enc_eq {A} raw (p : bstate -> res (A * bstate)) pos e e' a :
  e = e' -> parses raw p pos e' a -> parses raw p pos e a.
Proof. intros ->. exact (fun H => H). Qed.

Lemma parses_rd raw n v pos : v < 2 ^ n -> parses raw (rd BR n) pos (u n v) v.
Proof. intros Hv rest. unfold rd. cbn [r_read BR]. rewrite br_read_u, lenN_u by exact Hv. reflexivity. Qed.

Lemma parses_flag raw b pos : parses raw (rd_flag BR) pos (fl b) b.
Proof. intros rest. unfold rd_flag. cbn [r_flag BR]. rewrite br_flag_fl, lenN_fl. reflexivity. Qed.

Lemma parses_ue raw v pos : parses raw (rd_ue BR) pos (ue_bits v) v.
Proof. intros rest. unfold rd_ue. cbn [r_ue BR]. rewrite br_ue_bits. reflexivity. Qed.

Lemma parses_se raw k pos : parses raw (rd_se BR) pos (se_bits k) k.
Proof. intros rest. unfold rd_se. cbn [r_se BR]. rewrite br_se_bits. reflexivity. Qed.

Lemma parses_get_nbytes raw pos : parses raw (get_nbytes BR) pos [] (nbytes_at raw pos).
Proof.
  intros rest. unfold get_nbytes. cbn [r_nbytes BR app]. unfold br_nbytes. cbn [berr braw bpos].
  rewrite lenN_nil, N.add_0_r. reflexivity.
Qed.

Lemma parses_get_err raw pos : parses raw (get_err BR) pos [] false.
Proof.
  intros rest. unfold get_err. cbn [r_err BR app berr]. rewrite lenN_nil, N.add_0_r. reflexivity.
Qed.

(* se(v) element read with ReadExpGolomb (the Go code does that in several places) *)
Lemma parses_ue_of_se raw k pos : parses raw (rd_ue BR) pos (se_bits k) (se_code k).
Proof. apply parses_ue. Qed.

(* counted repetition: one encoder per element *)
Lemma parses_rep {A X} raw (body : bstate -> res (A * bstate)) (enc : X -> list bool) (val : X -> A) :
  forall (xs : list X) pos,
    (forall x pos', In x xs -> parses raw body pos' (enc x) (val x)) ->
    parses raw (rep (length xs) body) pos (flat_map enc xs) (map val xs).
Proof.
  induction xs as [|x t IH]; intros pos H; cbn [length rep flat_map map].
  - apply parses_ret.
  - eapply parses_bind; [apply H; left; reflexivity|].
    eapply parses_bind_nil; [apply IH; intros; apply H; right; assumption|].
    apply parses_ret.
Qed.

Lemma parses_rep_n {A X} raw (body : bstate -> res (A * bstate)) (enc : X -> list bool) (val : X -> A)
      (xs : list X) n pos :
  n = lenN xs -> n <= loop_bound ->
  (forall x pos', In x xs -> parses raw body pos' (enc x) (val x)) ->
  parses raw (rep_n n body) pos (flat_map enc xs) (map val xs).
Proof.
  intros -> Hb H. unfold rep_n.
  replace (lenN xs <=? loop_bound) with true by lia.
  unfold lenN. rewrite Nat2N.id. apply parses_rep. exact H.
Qed.

(* ------------------------------------------------------------------ bits <-> bytes *)
Lemma bytes_of_bits_u8 a rest : bytes_of_bits (u 8 a ++ rest) = u8 a :: bytes_of_bits rest.
Proof.
  pose proof (bval_ubits 8 a) as H. unfold bval in H.
  unfold u. change (N.to_nat 8) with 8%nat. cbn [ubits app bytes_of_bits fold_left] in *.
  f_equal. unfold u8. change (2 ^ N.of_nat 8) with 256 in H. rewrite <- H. lia.
Qed.

Lemma bytes_of_bits_u16 a rest :
  bytes_of_bits (u 16 a ++ rest) = u8 (a / 256) :: u8 a :: bytes_of_bits rest.
Proof.
  rewrite (u_split 8 8 a : u 16 a = _), <- app_assoc, !bytes_of_bits_u8. reflexivity.
Qed.

Lemma bits_of_bytes_of_bits : forall (n : nat) (l : list bool),
  length l = (8 * n)%nat -> bits_of_bytes (bytes_of_bits l) = l.
Proof.
  induction n as [|k IH]; intros l Hl.
  - destruct l; [reflexivity | discriminate].
  - destruct l as [|b7 [|b6 [|b5 [|b4 [|b3 [|b2 [|b1 [|b0 t]]]]]]]]; try (cbn in Hl; lia).
    cbn [bytes_of_bits bits_of_bytes flat_map].
    fold (bits_of_bytes (bytes_of_bits t)).
    rewrite IH by (cbn [length] in Hl; lia).
    destruct b7, b6, b5, b4, b3, b2, b1, b0; reflexivity.
Qed.

Lemma trailing_aligns n : exists m : nat, (N.to_nat n + length (trailing_bits n) = 8 * m)%nat.
Proof.
  unfold trailing_bits. cbn [length]. rewrite repeat_length.
  exists (N.to_nat ((n + 1 + (8 - (n + 1) mod 8) mod 8) / 8)).
  assert (H : (n + 1 + (8 - (n + 1) mod 8) mod 8) mod 8 = 0) by lia.
  lia.
Qed.

(* the bit reader started on the NAL unit sees header, payload, trailing bits *)
Lemma binit_nalu ref_idc typ payload :
  binit (nalu_of ref_idc typ payload) =
  mkB (raw_nalu ref_idc typ payload)
      (nal_header ref_idc typ ++ payload ++ trailing_bits (lenN (nal_header ref_idc typ ++ payload)))
      0 false.
Proof.
  unfold binit, nalu_of. rewrite unescape_escape.
  f_equal. unfold raw_nalu.
  set (b := nal_header ref_idc typ ++ payload).
  destruct (trailing_aligns (lenN b)) as [m Hm].
  rewrite (bits_of_bytes_of_bits m).
  - unfold b. now rewrite <- app_assoc.
  - rewrite app_length. unfold lenN in Hm. rewrite Nat2N.id in Hm. exact Hm.
Qed.
