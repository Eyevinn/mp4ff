(* C15HevcSliceBaseProofs.v — tools for the HEVC slice segment header proof: bits.CeilLog2 =
   Ceil(Log2(.)), the byte_alignment() loop on the ideal bit reader, the bit reader started on a slice
   NAL unit (header bits, alignment bits, slice data), PicSizeInCtbsY in the model's uint arithmetic,
   the fields of the expected SPS / PPS, the uint8 NumPicTotalCurr accumulator. *)
From V.lib Require Import Base.
From V.c13 Require Import C13Spec C13Model C13EscProofs.
From V.c15 Require Import C15Model C15Spec C15BitProofs C15AvcSpsProofs C15AvcPpsProofs
  C15HevcModel C15HevcSpec C15HevcBitProofs C15HevcPpsProofs.

(* ------------------------------------------------------------------ bits.CeilLog2 *)
Lemma ceil_log2_from_eq : forall fuel i n,
  N.of_nat fuel + i = 32 -> n <= 2 ^ 32 -> (i = 0 \/ 2 ^ (i - 1) < n) ->
  ceil_log2_from fuel i n = N.log2_up n.
Proof.
  induction fuel as [|f IH]; intros i n Hf Hn Hi; cbn [ceil_log2_from].
  - assert (i = 32) by (clear - Hf; lia). subst i. destruct Hi as [Hi | Hi]; [lia|].
    symmetry. apply N.log2_up_unique; [lia|]. change (N.pred 32) with 31. change (32 - 1) with 31 in Hi.
    split; assumption.
  - destruct (n <=? 2 ^ i) eqn:E.
    + apply N.leb_le in E. symmetry.
      destruct (N.eq_dec i 0) as [-> | Hnz].
      * apply N.log2_up_eqn0. change (2 ^ 0) with 1 in E. exact E.
      * destruct Hi as [Hi | Hi]; [lia|].
        apply N.log2_up_unique; [lia|]. replace (N.pred i) with (i - 1) by lia. split; assumption.
    + apply N.leb_gt in E. apply IH; [lia | exact Hn | right].
      replace (i + 1 - 1) with i by lia. exact E.
Qed.

Lemma ceil_log2_eq n : n <= 2 ^ 32 -> ceil_log2 n = N.log2_up n.
Proof. intros H. unfold ceil_log2. apply ceil_log2_from_eq; [reflexivity | exact H | left; reflexivity]. Qed.

Lemma log2_up_bound n : 1 <= n -> n <= 2 ^ N.log2_up n.
Proof.
  intros H. destruct (N.eq_dec n 1) as [-> | Hn]; [cbn; lia|].
  apply N.log2_up_spec. lia.
Qed.

(* ------------------------------------------------------------------ byte_alignment() *)
Lemma halign_ok raw D : forall (k fuel : nat) pos,
  (k < fuel)%nat -> N.of_nat k = (8 - pos mod 8) mod 8 ->
  halign_loop BR br_bib fuel (mkB raw (repeat false k ++ D) pos false)
  = Ok (tt, mkB raw D (pos + N.of_nat k) false).
Proof.
  induction k as [|k IH]; intros fuel pos Hf Hk; (destruct fuel as [|f]; [lia|]); cbn [halign_loop].
  - assert (E : pos mod 8 = 0) by lia.
    unfold br_bib. cbn [bpos]. rewrite E. change (0 =? 0) with true. cbv iota.
    change (8 <? 8) with false. cbv iota. cbn [repeat app]. do 3 f_equal. lia.
  - assert (E : pos mod 8 <> 0) by lia.
    unfold br_bib. cbn [bpos].
    replace (pos mod 8 =? 0) with false by lia.
    replace (pos mod 8 <? 8) with true by lia.
    change (repeat false (S k) ++ D) with (fl false ++ (repeat false k ++ D)).
    rewrite (bind_parses raw _ _ pos (fl false) false _ (parses_flag raw false pos)).
    cbv iota. rewrite lenN_fl.
    rewrite IH by lia. do 3 f_equal. lia.
Qed.

(* ------------------------------------------------------------------ the bit reader on a slice NAL unit *)
Lemma bits_of_bytes_app a b : bits_of_bytes (a ++ b) = bits_of_bytes a ++ bits_of_bytes b.
Proof. unfold bits_of_bytes. apply flat_map_app. Qed.

Lemma binit_hslice sp pp v :
  binit (hnalu_slice sp pp v) =
  mkB (hraw_slice sp pp v)
      (hslice_hdr_bits sp pp v ++ trailing_bits (lenN (hslice_hdr_bits sp pp v))
       ++ bits_of_bytes (sx_slice_segment_data v)) 0 false.
Proof.
  unfold binit, hnalu_slice. rewrite unescape_escape. f_equal.
  unfold hraw_slice. rewrite bits_of_bytes_app.
  set (b := hslice_hdr_bits sp pp v).
  destruct (trailing_aligns (lenN b)) as [m Hm].
  rewrite (bits_of_bytes_of_bits m).
  - now rewrite <- app_assoc.
  - rewrite app_length. unfold lenN in Hm. rewrite Nat2N.id in Hm. exact Hm.
Qed.

(* ------------------------------------------------------------------ fields of the expected SPS / PPS *)
Lemma esp_log2_min_cb sp : h_log2_min_cb (expected_hsps sp) = sx_log2_min_luma_coding_block_size_minus3 sp.
Proof. reflexivity. Qed.
Lemma esp_log2_diff_cb sp : h_log2_diff_cb (expected_hsps sp) = sx_log2_diff_max_min_luma_coding_block_size sp.
Proof. reflexivity. Qed.
Lemma esp_width sp : h_width (expected_hsps sp) = sx_pic_width_in_luma_samples sp.
Proof. reflexivity. Qed.
Lemma esp_height sp : h_height (expected_hsps sp) = sx_pic_height_in_luma_samples sp.
Proof. reflexivity. Qed.
Lemma esp_sep_plane sp : h_sep_plane (expected_hsps sp) = hs_sep_plane sp.
Proof. reflexivity. Qed.
Lemma esp_chroma sp : h_chroma (expected_hsps sp) = sx_chroma_format_idc sp.
Proof. reflexivity. Qed.
Lemma esp_log2_poc sp : h_log2_poc (expected_hsps sp) = sx_log2_max_pic_order_cnt_lsb_minus4 sp.
Proof. reflexivity. Qed.
Lemma esp_num_st_rps sp : h_num_st_rps (expected_hsps sp) = hs_num_st sp.
Proof. reflexivity. Qed.
Lemma esp_st_rps sp :
  h_st_rps (expected_hsps sp)
  = map (fun p => expected_hrps (fst p) (snd p)) (combine (hs_sps_derived sp) (sx_st_ref_pic_sets sp)).
Proof. reflexivity. Qed.
Lemma esp_lt_present sp : h_lt_present (expected_hsps sp) = sx_long_term_ref_pics_present_flag sp.
Proof. reflexivity. Qed.
Lemma esp_num_lt sp : h_num_lt (expected_hsps sp) = hs_num_lt_sps_in_sps sp.
Proof. reflexivity. Qed.
Lemma esp_lt sp :
  h_lt (expected_hsps sp)
  = if sx_long_term_ref_pics_present_flag sp
    then map (fun e => mkHLt (fst e) (snd e) false 0) (sx_lt_ref_pics_sps sp) else [].
Proof. reflexivity. Qed.
Lemma esp_tmvp sp : h_tmvp (expected_hsps sp) = sx_sps_temporal_mvp_enabled_flag sp.
Proof. reflexivity. Qed.
Lemma esp_sao sp : h_sao (expected_hsps sp) = sx_sample_adaptive_offset_enabled_flag sp.
Proof. reflexivity. Qed.
Lemma esp_scc sp :
  h_scc (expected_hsps sp)
  = if hsps_ext_on sp sx_sps_scc_extension_flag
    then Some (expected_hspsscc (sx_sps_scc_extension sp)) else None.
Proof. reflexivity. Qed.

Lemma epp_sps_id pp : pp_sps_id (expected_hpps pp) = sx_pps_seq_parameter_set_id pp.
Proof. reflexivity. Qed.
Lemma epp_dep_slices pp : pp_dep_slices (expected_hpps pp) = sx_dependent_slice_segments_enabled_flag pp.
Proof. reflexivity. Qed.
Lemma epp_num_extra_bits pp : pp_num_extra_bits (expected_hpps pp) = sx_num_extra_slice_header_bits pp.
Proof. reflexivity. Qed.
Lemma epp_output_flag_present pp : pp_output_flag_present (expected_hpps pp) = sx_output_flag_present_flag pp.
Proof. reflexivity. Qed.
Lemma epp_l0 pp : pp_l0 (expected_hpps pp) = sx_num_ref_idx_l0_default_active_minus1 pp.
Proof. reflexivity. Qed.
Lemma epp_l1 pp : pp_l1 (expected_hpps pp) = sx_num_ref_idx_l1_default_active_minus1 pp.
Proof. reflexivity. Qed.
Lemma epp_lists_mod pp : pp_lists_mod (expected_hpps pp) = sx_lists_modification_present_flag pp.
Proof. reflexivity. Qed.
Lemma epp_scc pp :
  pp_scc (expected_hpps pp)
  = if hpps_ext_on pp sx_pps_scc_extension_flag then Some (expected_hppsscc (sx_pps_scc_extension pp)) else None.
Proof. reflexivity. Qed.
Lemma epp_range pp :
  pp_range (expected_hpps pp)
  = if hpps_ext_on pp sx_pps_range_extension_flag
    then Some (expected_hppsrange (sx_transform_skip_enabled_flag pp) (sx_pps_range_extension pp)) else None.
Proof. reflexivity. Qed.
Lemma epp_cabac_init_present pp : pp_cabac_init_present (expected_hpps pp) = sx_cabac_init_present_flag pp.
Proof. reflexivity. Qed.
Lemma epp_weighted_pred pp : pp_weighted_pred (expected_hpps pp) = sx_weighted_pred_flag pp.
Proof. reflexivity. Qed.
Lemma epp_weighted_bipred pp : pp_weighted_bipred (expected_hpps pp) = sx_weighted_bipred_flag pp.
Proof. reflexivity. Qed.
Lemma epp_slice_chroma_qp_present pp :
  pp_slice_chroma_qp_present (expected_hpps pp) = sx_pps_slice_chroma_qp_offsets_present_flag pp.
Proof. reflexivity. Qed.
Lemma epp_dbf_override_enabled pp :
  pp_dbf_override_enabled (expected_hpps pp)
  = sx_deblocking_filter_control_present_flag pp && sx_deblocking_filter_override_enabled_flag pp.
Proof. reflexivity. Qed.
Lemma epp_dbf_disabled pp :
  pp_dbf_disabled (expected_hpps pp)
  = sx_deblocking_filter_control_present_flag pp && sx_pps_deblocking_filter_disabled_flag pp.
Proof. reflexivity. Qed.
Lemma epp_lf_across_slices pp :
  pp_lf_across_slices (expected_hpps pp) = sx_pps_loop_filter_across_slices_enabled_flag pp.
Proof. reflexivity. Qed.
Lemma epp_tiles pp : pp_tiles (expected_hpps pp) = sx_tiles_enabled_flag pp.
Proof. reflexivity. Qed.
Lemma epp_entropy_sync pp : pp_entropy_sync (expected_hpps pp) = sx_entropy_coding_sync_enabled_flag pp.
Proof. reflexivity. Qed.
Lemma epp_slice_ext_present pp :
  pp_slice_ext_present (expected_hpps pp) = sx_slice_segment_header_extension_present_flag pp.
Proof. reflexivity. Qed.

(* all of them at once: the fields the slice parser reads become syntax elements *)
Ltac esp_fields :=
  cbn [expected_hsps expected_hpps h_log2_min_cb h_log2_diff_cb h_width h_height h_sep_plane h_chroma
       h_log2_poc h_num_st_rps h_st_rps h_lt_present h_num_lt h_lt h_tmvp h_sao h_scc
       pp_sps_id pp_dep_slices pp_num_extra_bits pp_output_flag_present pp_l0 pp_l1 pp_lists_mod pp_scc
       pp_range pp_cabac_init_present pp_weighted_pred pp_weighted_bipred pp_slice_chroma_qp_present
       pp_dbf_override_enabled pp_dbf_disabled pp_lf_across_slices pp_tiles pp_entropy_sync
       pp_slice_ext_present].

(* ------------------------------------------------------------------ PicSizeInCtbsY *)
(* Go computes (a + b - 1) / b in uint64; the operands are far from the wrap *)
Lemma ceil_div_exact a b : 1 <= b -> a + b <= 18446744073709551616 -> ceil_div a b = (a + b - 1) / b.
Proof.
  intros Hb Hs. unfold ceil_div, u64. f_equal.
  replace (a + b + 18446744073709551615) with (a + b - 1 + 1 * 18446744073709551616) by lia.
  rewrite N.mod_add by discriminate. apply N.mod_small. lia.
Qed.

Lemma ctb_count_bounds w c : 1 <= w -> w < 65536 -> 16 <= c -> 1 <= (w + c - 1) / c <= 4096.
Proof.
  intros H1 H2 Hc. split.
  - apply N.div_le_lower_bound; lia.
  - apply N.lt_succ_r, N.div_lt_upper_bound; lia.
Qed.

Lemma hsps_valid_ctb sp : hsps_valid sp = true ->
  4 <= hs_ctb_log2 sp <= 6
  /\ 1 <= sx_pic_width_in_luma_samples sp < 65536 /\ 1 <= sx_pic_height_in_luma_samples sp < 65536.
Proof.
  intros Hv. unfold hsps_valid in Hv. cbv zeta in Hv. split_all. unfold hs_ctb_log2. lia.
Qed.

(* what the slice proofs use of the two parameter sets beyond the CTB grid *)
Lemma hsps_valid_poc_lt sp : hsps_valid sp = true ->
  sx_log2_max_pic_order_cnt_lsb_minus4 sp <= 12 /\ hs_num_lt_sps_in_sps sp <= 32.
Proof.
  intros Hv. unfold hsps_valid in Hv. cbv zeta in Hv. split_all. unfold hs_num_lt_sps_in_sps.
  destruct (sx_long_term_ref_pics_present_flag sp); lia.
Qed.

Lemma hpps_valid_ids pp : hpps_valid pp = true ->
  sx_pps_pic_parameter_set_id pp <= 63 /\ sx_num_extra_slice_header_bits pp < 8.
Proof. intros Hv. unfold hpps_valid in Hv. cbv zeta in Hv. split_all. lia. Qed.

Lemma hslice_ctb sp : hsps_valid sp = true ->
  let shift := u8 (sx_log2_min_luma_coding_block_size_minus3 sp + 3
                   + sx_log2_diff_max_min_luma_coding_block_size sp) in
  (shift <? 64) = true /\ (2 ^ shift =? 0) = false
  /\ u64 (ceil_div (sx_pic_width_in_luma_samples sp) (2 ^ shift)
          * ceil_div (sx_pic_height_in_luma_samples sp) (2 ^ shift)) = hs_pic_size_in_ctbs sp
  /\ 1 <= hs_pic_size_in_ctbs sp /\ hs_pic_size_in_ctbs sp <= 2 ^ 32.
Proof.
  intros Hv. destruct (hsps_valid_ctb sp Hv) as (Hs & Hw & Hh). clear Hv. cbv zeta.
  unfold hs_pic_size_in_ctbs, hs_pic_width_in_ctbs, hs_pic_height_in_ctbs, hs_ctb_size.
  fold (hs_ctb_log2 sp). rewrite (u8_id (hs_ctb_log2 sp)) by lia.
  assert (Hc : 2 ^ 4 <= 2 ^ hs_ctb_log2 sp <= 2 ^ 6) by (split; apply N.pow_le_mono_r; lia).
  change (2 ^ 4) with 16 in Hc. change (2 ^ 6) with 64 in Hc.
  set (c := 2 ^ hs_ctb_log2 sp) in *. clearbody c.
  rewrite !ceil_div_exact by lia.
  pose proof (ctb_count_bounds _ c (proj1 Hw) (proj2 Hw) (proj1 Hc)) as Bw.
  pose proof (ctb_count_bounds _ c (proj1 Hh) (proj2 Hh) (proj1 Hc)) as Bh.
  set (qw := (sx_pic_width_in_luma_samples sp + c - 1) / c) in *.
  set (qh := (sx_pic_height_in_luma_samples sp + c - 1) / c) in *. clearbody qw qh.
  assert (Hp : 1 * 1 <= qw * qh <= 4096 * 4096) by (split; apply N.mul_le_mono; lia).
  set (p := qw * qh) in *. clearbody p. change (2 ^ 32) with 4294967296.
  repeat split; try lia. apply u64_id. lia.
Qed.

(* ------------------------------------------------------------------ NumPicTotalCurr (uint8 accumulator) *)
Definition lt_acc (npt : N) (l : list bool) : N :=
  fold_left (fun a (b : bool) => if b then u8 (a + 1) else a) l npt.

Lemma countb_cons b l : countb (b :: l) = (if b then 1 else 0) + countb l.
Proof. unfold countb. cbn [filter]. destruct b; [rewrite lenN_cons|]; lia. Qed.

Lemma lt_acc_small : forall l a, a + countb l < 256 -> lt_acc a l = a + countb l.
Proof.
  induction l as [|b t IH]; intros a H; unfold lt_acc; cbn [fold_left].
  - unfold countb. cbn. lia.
  - rewrite countb_cons in *. fold (lt_acc (if b then u8 (a + 1) else a) t).
    destruct b.
    + rewrite u8_id by lia. rewrite IH by lia. lia.
    + rewrite IH by lia. lia.
Qed.

Lemma lt_acc_app l1 l2 a : lt_acc a (l1 ++ l2) = lt_acc (lt_acc a l1) l2.
Proof. unfold lt_acc. apply fold_left_app. Qed.
