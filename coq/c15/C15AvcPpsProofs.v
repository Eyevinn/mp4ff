(* C15AvcPpsProofs.v — ParsePPSNALUnit (model, ideal bit reader) on the serialised
   pic_parameter_set_rbsp returns the coded values. *)
From V.lib Require Import Base.
From V.c13 Require Import C13Spec C13Model.
From V.c15 Require Import C15Model C15Spec C15BitProofs C15AvcSpsProofs.

(* run a `parses` fact as a rewrite rule under a bind *)
Lemma bind_parses {A B} raw (p : bstate -> res (A * bstate)) (k : A -> bstate -> res (B * bstate))
      pos e a rest :
  parses raw p pos e a ->
  bind p k (mkB raw (e ++ rest) pos false) = k a (mkB raw rest (pos + lenN e) false).
Proof. intros H. unfold bind. rewrite H. reflexivity. Qed.

Lemma parses_rep_break {A X} raw (body : bstate -> res (A * bstate)) (enc : X -> list bool) (val : X -> A) :
  forall (xs : list X) pos,
    (forall x pos', In x xs -> parses raw body pos' (enc x) (val x)) ->
    parses raw (rep_break BR (length xs) body) pos (flat_map enc xs) (map val xs).
Proof.
  induction xs as [|x t IH]; intros pos H; cbn [length rep_break flat_map map].
  - apply parses_ret.
  - eapply parses_bind_peek; [apply parses_get_err|]. cbv beta iota.
    eapply parses_bind; [apply H; left; reflexivity|].
    eapply parses_bind_nil; [apply IH; intros; apply H; right; assumption|].
    apply parses_ret.
Qed.

Lemma parses_rep_break_n {A X} raw (body : bstate -> res (A * bstate)) (enc : X -> list bool) (val : X -> A)
      (xs : list X) n pos :
  n = lenN xs -> n <= loop_bound ->
  (forall x pos', In x xs -> parses raw body pos' (enc x) (val x)) ->
  parses raw (rep_break_n BR n body) pos (flat_map enc xs) (map val xs).
Proof.
  intros -> Hb H. unfold rep_break_n.
  replace (lenN xs <=? loop_bound) with true by lia.
  unfold lenN. rewrite Nat2N.id. apply parses_rep_break. exact H.
Qed.

Lemma ceil_log2_small n : 1 <= n <= 7 ->
  ceil_log2 (n + 1) = N.log2_up (n + 1) /\ n < 2 ^ N.log2_up (n + 1).
Proof.
  intros H.
  assert (C : n = 1 \/ n = 2 \/ n = 3 \/ n = 4 \/ n = 5 \/ n = 6 \/ n = 7) by lia.
  repeat (destruct C as [-> | C]; [split; reflexivity|]). subst. split; reflexivity.
Qed.

(* what pps_valid says: its arithmetic conjuncts outside the slice-group block *)
Lemma pps_valid_bounds chroma v : pps_valid chroma v = true ->
  pps_nal_ref_idc v < 4 /\ pic_parameter_set_id v <= 255 /\ pps_seq_parameter_set_id v <= 31
  /\ num_slice_groups_minus1 v <= 7
  /\ num_ref_idx_l0_default_active_minus1 v <= 31 /\ num_ref_idx_l1_default_active_minus1 v <= 31
  /\ weighted_bipred_idc v < 4.
Proof. intros Hv. unfold pps_valid in Hv. split_all. lia. Qed.

(* ------------------------------------------------------------------ slice groups *)
Lemma parses_pps_slice_groups raw chroma v pos :
  pps_valid chroma v = true ->
  parses raw (parse_pps_slice_groups BR (num_slice_groups_minus1 v)) pos (ser_pps_slice_groups v)
    (let sg := 0 <? num_slice_groups_minus1 v in
     let mt := if sg then slice_group_map_type v else 0 in
     let t0 := sg && (mt =? 0) in
     let t2 := sg && (mt =? 2) in
     let t345 := sg && ((mt =? 3) || (mt =? 4) || (mt =? 5)) in
     let t6 := sg && (mt =? 6) in
     (mt, (if t0 then run_length_minus1 v else []),
      (if t2 then map fst (top_left_bottom_right v) else []),
      (if t2 then map snd (top_left_bottom_right v) else []),
      t345 && slice_group_change_direction_flag v,
      (if t345 then slice_group_change_rate_minus1 v else 0),
      (if t6 then lenN (slice_group_id v) - 1 else 0),
      (if t6 then slice_group_id v else []))).
Proof.
  intros Hv. unfold pps_valid in Hv. split_all.
  unfold parse_pps_slice_groups, ser_pps_slice_groups. cbv zeta.
  destruct (0 <? num_slice_groups_minus1 v) eqn:Hsg; cbn [opt_bits andb]; [|apply parses_ret].
  split_all.
  preads.
  set (mt := slice_group_map_type v) in *.
  destruct (mt =? 0) eqn:E0.
  { assert (mt = 0) by lia.
    replace (mt =? 2) with false by lia. replace (mt =? 3) with false by lia.
    replace (mt =? 4) with false by lia. replace (mt =? 5) with false by lia.
    replace (mt =? 6) with false by lia. cbn [orb].
    split_all.
    plast ltac:(apply (parses_rep_n raw (rd_ue BR) ue_bits (fun x : N => x) (run_length_minus1 v));
                [lia | unfold loop_bound; lia | intros; apply parses_ue]).
    rewrite map_id. apply parses_ret. }
  destruct (mt =? 2) eqn:E2.
  { replace (mt =? 3) with false by lia. replace (mt =? 4) with false by lia.
    replace (mt =? 5) with false by lia. replace (mt =? 6) with false by lia. cbn [orb].
    split_all.
    plast ltac:(apply (parses_rep_n raw _ (fun p : N * N => ue_bits (fst p) ++ ue_bits (snd p))
                         (fun p : N * N => (fst p, snd p)) (top_left_bottom_right v));
                [lia | unfold loop_bound; lia
                 | intros; preads]).
    rewrite !map_map. cbn [fst snd]. apply parses_ret. }
  destruct ((mt =? 3) || (mt =? 4) || (mt =? 5)) eqn:E345.
  { replace (mt =? 6) with false by lia.
    preads. }
  destruct (mt =? 6) eqn:E6; [|apply parses_ret].
  split_all.
  destruct (ceil_log2_small (num_slice_groups_minus1 v)) as [Hc Hlt]; [lia|].
  preads.
  rewrite Hc. unfold slice_group_id_bits.
  plast ltac:(apply (parses_rep_break_n raw _ (u (N.log2_up (num_slice_groups_minus1 v + 1)))
                       (fun x : N => x) (slice_group_id v));
              [lia | unfold loop_bound; lia | ]).
  { intros x pos' Hin. apply parses_rd.
    match goal with H : forallb _ (slice_group_id v) = true |- _ =>
      rewrite forallb_forall in H; specialize (H x Hin) end. lia. }
  rewrite map_id. apply parses_ret.
Qed.

(* ------------------------------------------------------------------ prefix *)
Lemma parses_pps_pre raw chroma v pos :
  pps_valid chroma v = true ->
  parses raw (parse_pps_pre BR) pos (ser_pps_pre v)
    (pic_parameter_set_id v, pps_seq_parameter_set_id v, entropy_coding_mode_flag v,
     bottom_field_pic_order_in_frame_present_flag v, num_slice_groups_minus1 v,
     (let sg := 0 <? num_slice_groups_minus1 v in
      let mt := if sg then slice_group_map_type v else 0 in
      let t0 := sg && (mt =? 0) in
      let t2 := sg && (mt =? 2) in
      let t345 := sg && ((mt =? 3) || (mt =? 4) || (mt =? 5)) in
      let t6 := sg && (mt =? 6) in
      (mt, (if t0 then run_length_minus1 v else []),
       (if t2 then map fst (top_left_bottom_right v) else []),
       (if t2 then map snd (top_left_bottom_right v) else []),
       t345 && slice_group_change_direction_flag v,
       (if t345 then slice_group_change_rate_minus1 v else 0),
       (if t6 then lenN (slice_group_id v) - 1 else 0),
       (if t6 then slice_group_id v else []))),
     num_ref_idx_l0_default_active_minus1 v, num_ref_idx_l1_default_active_minus1 v,
     weighted_pred_flag v, weighted_bipred_idc v,
     pic_init_qp_minus26 v, pic_init_qs_minus26 v, chroma_qp_index_offset v,
     deblocking_filter_control_present_flag v, constrained_intra_pred_flag v,
     redundant_pic_cnt_present_flag v).
Proof.
  intros Hv. destruct (pps_valid_bounds chroma v Hv) as (_ & _ & _ & Hnsg & _ & _ & Hwb).
  unfold parse_pps_pre, ser_pps_pre.
  preads.
  replace (7 <? num_slice_groups_minus1 v) with false by lia.
  pbind ltac:(apply (parses_pps_slice_groups raw chroma v _ Hv)).
  preads.
  pbind ltac:(apply parses_rd; lia).
  preads.
Qed.

(* ------------------------------------------------------------------ the part behind more_rbsp_data() *)
Lemma parses_pps_tail raw chroma v spsmap pos :
  pps_valid chroma v = true -> pps_has_tail v = true ->
  (pic_scaling_matrix_present_flag v = true -> spsmap (pps_seq_parameter_set_id v) = Some chroma) ->
  parses raw (parse_pps_tail BR spsmap (pps_seq_parameter_set_id v)) pos (ser_pps_tail v)
    (transform_8x8_mode_flag v, pic_scaling_matrix_present_flag v,
     (if pic_scaling_matrix_present_flag v then expected_scaling_lists 0 (pic_scaling_lists v) else []),
     second_chroma_qp_index_offset v).
Proof.
  intros Hv Ht Hmap. unfold pps_valid in Hv. split_all.
  match goal with H : (if pps_has_tail v then _ else true) = true |- _ => rewrite Ht in H; split_all end.
  unfold parse_pps_tail, ser_pps_tail.
  preads.
  eapply parses_bind.
  { apply (parses_opt raw _ (pic_scaling_matrix_present_flag v) _
             (expected_scaling_lists 0 (pic_scaling_lists v)) []).
    intros Hs. rewrite (Hmap Hs).
    match goal with H : (if pic_scaling_matrix_present_flag v then _ else true) = true |- _ =>
      rewrite Hs in H; apply andb_prop in H; destruct H as [Hlen Hsl] end.
    replace (if transform_8x8_mode_flag v then if negb (chroma =? 3) then 8%nat else 12%nat else 6%nat)
      with (length (pic_scaling_lists v)).
    - apply parses_scaling_lists. exact Hsl.
    - unfold pps_nr_scaling_lists, lenN in Hlen.
      destruct (transform_8x8_mode_flag v), (chroma =? 3); cbn [negb]; lia. }
  preads.
Qed.

(* ------------------------------------------------------------------ more_rbsp_data / trailing bits *)
Lemma all_zero_repeat k : all_zero (repeat false k) = true.
Proof. induction k; [reflexivity | exact IHk]. Qed.

Lemma all_zero_app_true a b : all_zero (a ++ true :: b) = false.
Proof. unfold all_zero. rewrite forallb_app. cbn [forallb negb andb]. apply andb_false_r. Qed.

Lemma br_more_trailing raw n pos :
  br_more (mkB raw (trailing_bits n) pos false) = (false, mkB raw (trailing_bits n) pos false).
Proof. unfold br_more, trailing_bits. cbn [berr bbits]. rewrite all_zero_repeat. reflexivity. Qed.

Lemma br_more_data raw b l n pos :
  br_more (mkB raw ((b :: l) ++ trailing_bits n) pos false)
  = (true, mkB raw ((b :: l) ++ trailing_bits n) pos false).
Proof.
  unfold br_more, trailing_bits. cbn [berr bbits app]. destruct b; [|reflexivity].
  rewrite all_zero_app_true. reflexivity.
Qed.

Lemma br_trailing_ok raw n pos :
  br_trailing (mkB raw (trailing_bits n) pos false) = (false, mkB raw [] (8 * lenN raw) false).
Proof. unfold br_trailing, trailing_bits. cbn [berr bbits braw]. rewrite all_zero_repeat. reflexivity. Qed.

(* the end of ParsePPSNALUnit on the trailing bits: they are accepted, no error so far, and the read
   after them hits the end of the data *)
Lemma rbsp_end_ok {A} raw n pos (a : A) :
  bind (rd_trailing BR) (fun tr => if tr then fail else
  bind (get_err BR) (fun e => if e then fail else
  bind (rd BR 1) (fun _ =>
  bind (get_err BR) (fun e2 => if negb e2 then fail else ret a))))
    (mkB raw (trailing_bits n) pos false)
  = Ok (a, mkB raw [] (8 * lenN raw) true).
Proof. unfold bind, rd_trailing. cbn [r_trailing BR]. rewrite br_trailing_ok. reflexivity. Qed.

Lemma pps_post raw chroma v spsmap pos n :
  pps_valid chroma v = true ->
  (pps_has_tail v && pic_scaling_matrix_present_flag v = true ->
   spsmap (pps_seq_parameter_set_id v) = Some chroma) ->
  run (parse_pps_post BR spsmap
         (pic_parameter_set_id v, pps_seq_parameter_set_id v, entropy_coding_mode_flag v,
          bottom_field_pic_order_in_frame_present_flag v, num_slice_groups_minus1 v,
          (let sg := 0 <? num_slice_groups_minus1 v in
           let mt := if sg then slice_group_map_type v else 0 in
           let t0 := sg && (mt =? 0) in
           let t2 := sg && (mt =? 2) in
           let t345 := sg && ((mt =? 3) || (mt =? 4) || (mt =? 5)) in
           let t6 := sg && (mt =? 6) in
           (mt, (if t0 then run_length_minus1 v else []),
            (if t2 then map fst (top_left_bottom_right v) else []),
            (if t2 then map snd (top_left_bottom_right v) else []),
            t345 && slice_group_change_direction_flag v,
            (if t345 then slice_group_change_rate_minus1 v else 0),
            (if t6 then lenN (slice_group_id v) - 1 else 0),
            (if t6 then slice_group_id v else []))),
          num_ref_idx_l0_default_active_minus1 v, num_ref_idx_l1_default_active_minus1 v,
          weighted_pred_flag v, weighted_bipred_idc v,
          pic_init_qp_minus26 v, pic_init_qs_minus26 v, chroma_qp_index_offset v,
          deblocking_filter_control_present_flag v, constrained_intra_pred_flag v,
          redundant_pic_cnt_present_flag v))
      (mkB raw (opt_bits (pps_has_tail v) (ser_pps_tail v) ++ trailing_bits n) pos false)
  = Ok (expected_pps v).
Proof.
  intros Hv Hmap. destruct (pps_valid_bounds chroma v Hv) as (_ & Hid & Hsid & _).
  unfold parse_pps_post, run. cbv beta iota zeta.
  unfold rd_more at 1. unfold bind at 1. cbn [r_more BR].
  destruct (pps_has_tail v) eqn:Ht; cbn [opt_bits].
  - assert (Hne : exists b l, ser_pps_tail v = b :: l) by (unfold ser_pps_tail, fl; cbn [app]; eauto).
    destruct Hne as (b & l & Hbl).
    rewrite Hbl, br_more_data, <- Hbl. cbv iota.
    rewrite (u32_id (pps_seq_parameter_set_id v)) by lia.
    rewrite (bind_parses raw _ _ pos (ser_pps_tail v) _ (trailing_bits n)
               (parses_pps_tail raw chroma v spsmap pos Hv Ht
                  (fun Hs => Hmap (eq_ind_r (fun b => true && b = true) eq_refl Hs)))).
    cbv beta iota zeta. rewrite rbsp_end_ok, (u32_id (pic_parameter_set_id v)) by lia.
    unfold expected_pps. cbv zeta. rewrite Ht. reflexivity.
  - cbn [app]. rewrite br_more_trailing. cbv iota.
    unfold ret at 1. unfold bind at 1. cbv beta iota zeta.
    rewrite rbsp_end_ok, (u32_id (pic_parameter_set_id v)), (u32_id (pps_seq_parameter_set_id v)) by lia.
    unfold expected_pps. cbv zeta. rewrite Ht. reflexivity.
Qed.

(* ------------------------------------------------------------------ the NAL unit *)
Lemma avc_pps chroma spsmap v :
  pps_valid chroma v = true ->
  (pps_has_tail v && pic_scaling_matrix_present_flag v = true ->
   spsmap (pps_seq_parameter_set_id v) = Some chroma) ->
  parse_pps_br spsmap (nalu_pps v) = Ok (expected_pps v).
Proof.
  intros Hv Hmap.
  destruct (pps_valid_bounds chroma v Hv) as (Hr & _).
  destruct (nal_header_u8 (pps_nal_ref_idc v) 8 Hr) as (Hh & Hland & Hlt & _); [auto|].
  unfold parse_pps_br, nalu_pps. rewrite binit_nalu. fold (raw_pps v).
  rewrite Hh. unfold ser_pps. rewrite <- !app_assoc.
  unfold parse_pps, run.
  rewrite (bind_parses (raw_pps v) _ _ 0 _ _ _ (parses_rd (raw_pps v) 8 _ 0 Hlt)).
  rewrite Hland. change (negb (8 =? 8)) with false. cbv iota.
  rewrite (bind_parses (raw_pps v) _ _ _ _ _ _ (parses_pps_pre (raw_pps v) chroma v _ Hv)).
  apply (pps_post (raw_pps v) chroma v spsmap _ _ Hv Hmap).
Qed.
