(* C15Avc2Theorems.v — property C15 for the AVC slice header after the repair of finding F7
   (/repo 174cc8e): the parser model of the repaired text (C15Avc2Model.parse_slice_header2) returns the
   coded values on EVERY valid slice, slice-group map types 3..5 (slice_group_change_cycle) included. *)
From V.lib Require Import Base.
From V.c13 Require Import C13Spec C13Model.
From V.c15 Require Import C15Model C15Spec C15Examples C15AvcVuiProofs C15Avc2Model C15Avc2DimsProofs C15Avc2Proofs
  C15TieBaseProofs C15TieAvcProofs C15TieAvc2Proofs.

(* the statement of C15_avc_slice without its guard sl_has_fmo_cycle pp = false.  PicSizeInMapUnits < 2^32
   (the widths go through bits.CeilLog2, which answers at most 32; level limits keep PicSizeInMapUnits
   below 2^18) *)
Theorem C15_avc_slice_all : forall spsmap ppsmap sp pp v beyond cm s p,
  sps_valid sp = true -> pps_valid (eff_chroma_format_idc sp) pp = true -> slice_valid sp pp v = true ->
  pic_size_in_map_units sp < 4294967296 ->
  (pps_has_tail pp && pic_scaling_matrix_present_flag pp = true ->
   cm (pps_seq_parameter_set_id pp) = Some (eff_chroma_format_idc sp)) ->
  parse_sps_br beyond (nalu_sps sp) = Ok s -> parse_pps_br cm (nalu_pps pp) = Ok p ->
  ppsmap (sl_pic_parameter_set_id v) = Some p -> spsmap (pps_seq_parameter_set_id pp) = Some s ->
  parse_slice2_br spsmap ppsmap (nalu_slice sp pp v) = Ok (expected_slice sp pp v).
Proof. exact avc_slice2. Qed.
Print Assumptions C15_avc_slice_all.
(* the former witness of finding F7 (C15_avc_slice_fmo_refuted, about the text before the repair) *)
Example C15_avc_slice_all_hyps :
  sps_valid ex_fmo_sps = true /\ pps_valid (eff_chroma_format_idc ex_fmo_sps) ex_fmo_pps = true
  /\ slice_valid ex_fmo_sps ex_fmo_pps ex_fmo_slice = true /\ sl_has_fmo_cycle ex_fmo_pps = true
  /\ pic_size_in_map_units ex_fmo_sps < 4294967296
  /\ 0 < slice_group_change_cycle_bits ex_fmo_sps ex_fmo_pps
  /\ parse_slice2_br (fun _ => Some (expected_sps true ex_fmo_sps)) (fun _ => Some (expected_pps ex_fmo_pps))
       (nalu_slice ex_fmo_sps ex_fmo_pps ex_fmo_slice) = Ok (expected_slice ex_fmo_sps ex_fmo_pps ex_fmo_slice).
Proof. vm_compute. repeat split; reflexivity. Qed.

(* the derivation behind the repair: PicSizeInMapUnits = PicWidthInMbs * PicHeightInMapUnits is
   recomputed exactly from the fields avc.SPS keeps (cropped Width / Height, crop offsets,
   ChromaFormatIDC, FrameMbsOnlyFlag, FrameCroppingFlag) *)
Theorem C15_avc_pic_size_derivable : forall sp beyond s,
  sps_valid sp = true -> parse_sps_br beyond (nalu_sps sp) = Ok s ->
  sps_pic_size_in_map_units s = (pic_width_in_mbs_minus1 sp + 1) * (pic_height_in_map_units_minus1 sp + 1).
Proof.
  intros sp beyond s Hv Hs. rewrite (avc_sps_go sp beyond Hv) in Hs. injection Hs as <-.
  apply pic_size_expected. exact Hv.
Qed.
Print Assumptions C15_avc_pic_size_derivable.

Theorem C15_reader_tie_avc_slice_all : forall raw spsmap ppsmap,
  bytes_ok raw = true -> zrun_ok raw = true ->
  (forall id s, spsmap id = Some s -> sps_narrow s = true) ->
  parse_slice2_er spsmap ppsmap (escape raw) = parse_slice2_br spsmap ppsmap (escape raw).
Proof. exact tie_avc_slice2. Qed.
Print Assumptions C15_reader_tie_avc_slice_all.

Theorem C15_avc_slice_all_er : forall spsmap ppsmap sp pp v beyond cm s p,
  sps_valid sp = true -> pps_valid (eff_chroma_format_idc sp) pp = true -> slice_valid sp pp v = true ->
  pic_size_in_map_units sp < 4294967296 ->
  (pps_has_tail pp && pic_scaling_matrix_present_flag pp = true ->
   cm (pps_seq_parameter_set_id pp) = Some (eff_chroma_format_idc sp)) ->
  zrun_ok (raw_sps sp) = true -> zrun_ok (raw_pps pp) = true -> zrun_ok (raw_slice sp pp v) = true ->
  (forall id x, spsmap id = Some x -> sps_narrow x = true) ->
  parse_sps_er beyond (nalu_sps sp) = Ok s -> parse_pps_er cm (nalu_pps pp) = Ok p ->
  ppsmap (sl_pic_parameter_set_id v) = Some p -> spsmap (pps_seq_parameter_set_id pp) = Some s ->
  parse_slice2_er spsmap ppsmap (nalu_slice sp pp v) = Ok (expected_slice sp pp v).
Proof. exact avc_slice2_er. Qed.
Print Assumptions C15_avc_slice_all_er.
