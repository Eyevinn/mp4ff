(* C15HypTheorems.v — (a) a hypothesis of the AVC slice reader ties discharged as an invariant
   of the decoder: EVERY SPS avc.ParseSPSNALUnit returns, on any bytes, has log2_max_frame_num_minus4 and
   log2_max_pic_order_cnt_lsb_minus4 <= 12 (the guards of /repo 6a5a0a9), so the hypothesis
   `forall id s, spsmap id = Some s -> sps_narrow s = true` holds of every spsMap filled by the parser;
   (b) the hypotheses of all reader ties as ONE executable predicate hyp_tie_raw on the NAL unit the
   parser is given; the extracted predicate is evaluated by the model driver on every case of every run
   (evidence: coverage.theorem_hypotheses_evaluated) and the ties' conclusion is compared there. *)
From V.lib Require Import Base.
From V.c13 Require Import C13Spec C13Model.
From V.c15 Require Import C15Model C15Spec C15Examples C15HevcModel C15HevcSpec C15HevcExamples
  C15Hevc2Model C15Avc2Model C15Avc2DimsProofs C15HypModel
  C15TieBaseProofs C15TieAvcProofs C15TieAvc2Proofs C15TieHevcProofs C15TieHevcSpsProofs C15HypProofs.

(* decoder invariant, both reader instances, EVERY input (well formed or not) *)
Theorem C15_avc_sps_parsed_narrow : forall beyond nalu s,
  parse_sps_er beyond nalu = Ok s \/ parse_sps_br beyond nalu = Ok s -> sps_narrow s = true.
Proof. intros b n s [H | H]; [exact (sps_narrow_parsed_er b n s H) | exact (sps_narrow_parsed_br b n s H)]. Qed.
Print Assumptions C15_avc_sps_parsed_narrow.

(* C15_reader_tie_avc_slice_all without its hypothesis on the parameter sets: sps_map_parsed spsmap =
   every entry of the map was returned by the SPS parser (on whatever bytes, by either instance) *)
Theorem C15_reader_tie_avc_slice_all_parsed : forall raw spsmap ppsmap,
  bytes_ok raw = true -> zrun_ok raw = true -> sps_map_parsed spsmap ->
  parse_slice2_er spsmap ppsmap (escape raw) = parse_slice2_br spsmap ppsmap (escape raw).
Proof. intros raw spsmap ppsmap Hb Hz Hm. apply tie_avc_slice2; auto. apply sps_map_parsed_narrow, Hm. Qed.
Print Assumptions C15_reader_tie_avc_slice_all_parsed.

(* C15_avc_slice_all_er likewise *)
Theorem C15_avc_slice_all_er_parsed : forall spsmap ppsmap sp pp v beyond cm s p,
  sps_valid sp = true -> pps_valid (eff_chroma_format_idc sp) pp = true -> slice_valid sp pp v = true ->
  pic_size_in_map_units sp < 4294967296 ->
  (pps_has_tail pp && pic_scaling_matrix_present_flag pp = true ->
   cm (pps_seq_parameter_set_id pp) = Some (eff_chroma_format_idc sp)) ->
  zrun_ok (raw_sps sp) = true -> zrun_ok (raw_pps pp) = true -> zrun_ok (raw_slice sp pp v) = true ->
  sps_map_parsed spsmap ->
  parse_sps_er beyond (nalu_sps sp) = Ok s -> parse_pps_er cm (nalu_pps pp) = Ok p ->
  ppsmap (sl_pic_parameter_set_id v) = Some p -> spsmap (pps_seq_parameter_set_id pp) = Some s ->
  parse_slice2_er spsmap ppsmap (nalu_slice sp pp v) = Ok (expected_slice sp pp v).
Proof. intros. eapply avc_slice2_er; eauto. apply sps_map_parsed_narrow. assumption. Qed.
Print Assumptions C15_avc_slice_all_er_parsed.

(* a parser-filled map; a log2 value of 13 is refused (the guard the invariant rests on) *)
Example C15_sps_map_parsed_hyps :
  sps_map_parsed (fun _ => Some (expected_sps true ex_sl_sps))
  /\ parse_sps_er true (nalu_sps ex_fmo_sps) = Ok (expected_sps true ex_fmo_sps)
  /\ sps_narrow (expected_sps true ex_fmo_sps) = true.
Proof.
  split; [|vm_compute; split; reflexivity].
  intros id s E. injection E as <-. exists true, (nalu_sps ex_sl_sps). left. vm_compute. reflexivity.
Qed.

(* the executable predicate is the ties' hypothesis, exactly *)
Theorem C15_tie_hypothesis_predicate :
  (forall nalu, hyp_tie_raw nalu = true ->
     exists raw, bytes_ok raw = true /\ zrun_ok raw = true /\ nalu = escape raw)
  /\ (forall raw, bytes_ok raw = true -> zrun_ok raw = true -> unescape (escape raw) = raw ->
        hyp_tie_raw (escape raw) = true)
  /\ (forall s, hyp_sps_narrow s = sps_narrow s) /\ (forall p, hyp_pps_narrow p = pps_narrow p)
  /\ (forall s, hyp_hsps_narrow s = hsps_narrow s) /\ (forall s, hyp_hsps_depths_ok s = hsps_depths_ok s).
Proof.
  exact (conj hyp_tie_raw_sound (conj hyp_tie_raw_complete (conj hyp_sps_narrow_eq (conj hyp_pps_narrow_eq
    (conj hyp_hsps_narrow_eq hyp_hsps_depths_ok_eq))))).
Qed.
Print Assumptions C15_tie_hypothesis_predicate.

(* the reader ties in the form the driver evaluates on the NAL units of a run: whenever the executable
   predicate holds of the bytes handed to the Go parser, the EBSP-reader instance and the ideal-reader
   instance (the one the C15_* value theorems are about) agree *)
Theorem C15_tie_applies :
  (forall nalu beyond, hyp_tie_raw nalu = true -> parse_sps_er beyond nalu = parse_sps_br beyond nalu)
  /\ (forall nalu spsmap, hyp_tie_raw nalu = true -> parse_pps_er spsmap nalu = parse_pps_br spsmap nalu)
  /\ (forall nalu spsmap ppsmap, hyp_tie_raw nalu = true ->
        (forall id s, spsmap id = Some s -> hyp_sps_narrow s = true) ->
        parse_slice2_er spsmap ppsmap nalu = parse_slice2_br spsmap ppsmap nalu)
  /\ (forall nalu spsmap, hyp_tie_raw nalu = true -> hparse_pps_er spsmap nalu = hparse_pps_br spsmap nalu)
  /\ (forall nalu spsmap, hyp_tie_raw nalu = true -> hparse_pps2_er spsmap nalu = hparse_pps2_br spsmap nalu)
  /\ (forall nalu spsmap ppsmap, hyp_tie_raw nalu = true ->
        (forall id s, spsmap id = Some s -> hyp_hsps_narrow s = true) ->
        hparse_slice_er spsmap ppsmap nalu = hparse_slice_br spsmap ppsmap nalu)
  /\ (forall nalu s, hyp_tie_raw nalu = true -> hparse_sps_br nalu = Ok s -> hyp_hsps_depths_ok s = true ->
        hparse_sps_er nalu = Ok s).
Proof.
  exact (conj tie_applies_avc_sps (conj tie_applies_avc_pps (conj tie_applies_avc_slice2 (conj tie_applies_hevc_pps
    (conj tie_applies_hevc_pps2 (conj tie_applies_hevc_slice tie_applies_hevc_sps)))))).
Qed.
Print Assumptions C15_tie_applies.

(* the predicate on concrete NAL units: a serialised SPS (true), an HEVC SPS with 4 emulation-prevention
   bytes (true), a dangling 00 00 03 (false: not a canonical escape), an unescaped 00 00 01 (false),
   a 64-bit zero run (false) *)
Example C15_tie_hypothesis_hyps :
  hyp_tie_raw (nalu_sps ex_sps) = true /\ hyp_tie_raw (hnalu_sps ex_hsps) = true
  /\ hyp_tie_raw [103; 66; 0; 0; 3] = false /\ hyp_tie_raw [103; 0; 0; 1; 128] = false
  /\ hyp_tie_raw [104; 0; 0; 3; 0; 0; 3; 0; 0; 3; 0; 0; 3; 0; 128] = false
  /\ hyp_tie_raw [104; 0; 0; 3; 1; 0; 0; 3; 0; 0; 3; 0; 2; 200; 128] = true.
Proof. vm_compute. repeat split; reflexivity. Qed.
