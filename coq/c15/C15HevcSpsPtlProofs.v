(* C15HevcSpsPtlProofs.v — profile_tier_level and scaling_list_data of the HEVC SPS: the model
   parsers on the ideal bit reader return the coded values. *)
From V.lib Require Import Base.
From V.c13 Require Import C13Spec C13Model.
From V.c15 Require Import C15Model C15Spec C15BitProofs C15AvcSpsProofs C15AvcPpsProofs
  C15HevcModel C15HevcSpec C15HevcBitProofs.

Section NoDivision.
(* nothing in this section divides: lia without its preprocessing of / and mod, which visits every
   hypothesis at every call (dlia, C15HevcBitProofs, is lia with that step) *)
Ltac Zify.zify_convert_to_euclidean_division_equations_flag ::= constr:(false).

(* ------------------------------------------------------------------ profile_tier_level (7.3.3) *)
Lemma parses_hprofile raw p pos :
  hprofile_valid p = true ->
  parses raw (hparse_profile BR) pos (ser_hprofile p)
    (sx_profile_space p, sx_tier_flag p, sx_profile_idc p, sx_profile_compatibility_flags p,
     constraint48 p).
Proof.
  intros Hv. unfold hprofile_valid in Hv. split_all.
  destruct (constraint48_bits p) as [Hbits Hlt]; [lia|].
  unfold hparse_profile, ser_hprofile. rewrite Hbits.
  pbind ltac:(apply parses_rd; lia).
  pread.
  pbind ltac:(apply parses_rd; lia).
  pbind ltac:(apply parses_rd; lia).
  plast ltac:(apply parses_rd; exact Hlt).
  apply parses_ret_eq.
  unfold u8, u32, u64.
  change (2 ^ 48) with 281474976710656 in Hlt. change (2 ^ 32) with 4294967296 in *.
  rewrite !N.mod_small by lia. reflexivity.
Qed.

Lemma parses_hsub raw s pos :
  hprofile_valid (sx_sub_profile s) = true -> sx_sub_level_idc s < 256 ->
  parses raw (hparse_sub BR (sx_sub_profile_present s, sx_sub_level_present s)) pos
    (opt_bits (sx_sub_profile_present s) (ser_hprofile (sx_sub_profile s))
     ++ opt_bits (sx_sub_level_present s) (u 8 (sx_sub_level_idc s)))
    (expected_hsub s).
Proof.
  intros Hp Hl. unfold hparse_sub, expected_hsub. cbn [fst snd]. cbv zeta.
  eapply parses_bind.
  { apply (parses_opt raw _ (sx_sub_profile_present s) _
             (sx_profile_space (sx_sub_profile s), sx_tier_flag (sx_sub_profile s),
              sx_profile_idc (sx_sub_profile s), sx_profile_compatibility_flags (sx_sub_profile s),
              constraint48 (sx_sub_profile s)) (0, false, 0, 0, 0)).
    intros _. apply parses_hprofile. exact Hp. }
  cbv beta.
  eapply parses_bind_nil.
  { apply (parses_opt raw _ (sx_sub_level_present s) _ (sx_sub_level_idc s) 0).
    intros _. plast ltac:(apply parses_rd; lia). apply parses_ret_eq. unfold u8. apply N.mod_small. lia. }
  cbv beta.
  destruct (sx_sub_profile_present s); cbv beta iota zeta; cbn [andb]; apply parses_ret.
Qed.

Lemma parses_hptl raw ms p pos :
  hptl_valid ms p = true -> ms <= 6 ->
  parses raw (hparse_ptl BR ms) pos (ser_hptl ms p) (expected_hptl p).
Proof.
  intros Hv Hms. unfold hptl_valid in Hv. split_all.
  unfold hparse_ptl, ser_hptl, expected_hptl. cbv zeta.
  pbind ltac:(apply parses_hprofile; assumption).
  pbind ltac:(apply parses_rd; lia).
  assert (E8 : u8 (sx_general_level_idc p) = sx_general_level_idc p) by (unfold u8; apply N.mod_small; lia).
  rewrite E8.
  destruct (0 <? ms) eqn:H0; cbn [opt_bits].
  - eapply parses_bind_nil; [|apply parses_ret].
    pbind ltac:(apply (parses_rep_n raw _
                         (fun s => fl (sx_sub_profile_present s) ++ fl (sx_sub_level_present s))
                         (fun s => (sx_sub_profile_present s, sx_sub_level_present s)) (sx_sub_layers p));
                [lia | unfold loop_bound; lia
                 | intros; pbind ltac:(apply parses_flag); plast ltac:(apply parses_flag); apply parses_ret]).
    replace (ms <? 8) with true by lia.
    pbind ltac:(apply parses_rd; apply N.neq_0_lt_0, N.pow_nonzero; discriminate).
    apply parses_mapM. intros x pos' Hin.
    match goal with H : forallb _ (sx_sub_layers p) = true |- _ =>
      rewrite forallb_forall in H; specialize (H x Hin); apply andb_prop in H; destruct H as [Hx1 Hx2] end.
    apply parses_hsub; [exact Hx1 | lia].
  - assert (Hn : sx_sub_layers p = []).
    { destruct (sx_sub_layers p); [reflexivity|]. rewrite lenN_cons in *. lia. }
    rewrite Hn. cbn [flat_map map app].
    plast ltac:(apply parses_ret). apply parses_ret.
Qed.

(* ------------------------------------------------------------------ scaling_list_data (7.3.4) *)
Lemma parses_hskip_entry raw size_id e pos :
  hsl_entry_valid size_id e = true ->
  parses raw (hskip_scaling_entry BR size_id) pos (ser_hsl_entry size_id e) tt.
Proof.
  intros Hv. unfold hskip_scaling_entry. destruct e as [d | dc cs]; cbn [ser_hsl_entry hsl_entry_valid] in *.
  - pread. cbn [negb].
    preads.
  - split_all. pread. cbn [negb].
    eapply parses_bind.
    { apply (parses_opt raw _ (1 <? size_id) _ tt tt).
      intros _. plast ltac:(apply parses_ue_of_se). apply parses_ret. }
    cbv beta.
    eapply parses_bind_nil; [|apply parses_ret].
    apply (parses_rep_len raw (rd_ue BR) se_bits se_code cs).
    + unfold sl_coef_num, lenN in *. lia.
    + intros. apply parses_ue_of_se.
  Unshelve. all: exact tt.
Qed.

Lemma parses_hskip_entries raw size_id (k : nat) l pos :
  lenN l = N.of_nat k -> forallb (hsl_entry_valid size_id) l = true ->
  parses raw (rep k (hskip_scaling_entry BR size_id)) pos (flat_map (ser_hsl_entry size_id) l)
         (map (fun _ => tt) l).
Proof.
  intros Hl Hv.
  apply (parses_rep_len raw _ (ser_hsl_entry size_id) (fun _ => tt) l); [unfold lenN in Hl; lia|].
  intros x pos' Hin. rewrite forallb_forall in Hv. apply parses_hskip_entry. apply Hv. exact Hin.
Qed.

Lemma parses_hskip_sl raw s pos :
  hsl_valid s = true ->
  parses raw (hskip_scaling_list_data BR) pos (ser_hsl s) tt.
Proof.
  intros Hv. unfold hsl_valid in Hv. split_all.
  unfold hskip_scaling_list_data, ser_hsl.
  pbind ltac:(apply (parses_hskip_entries raw 0 6 (sx_sl0 s)); [lia | assumption]).
  pbind ltac:(apply (parses_hskip_entries raw 1 6 (sx_sl1 s)); [lia | assumption]).
  pbind ltac:(apply (parses_hskip_entries raw 2 6 (sx_sl2 s)); [lia | assumption]).
  plast ltac:(apply (parses_hskip_entries raw 3 2 (sx_sl3 s)); [lia | assumption]).
  apply parses_ret.
Qed.

End NoDivision.
