(* C15TieTheorems.v — the reader ties of C15 and the parse theorems for the reader the Go code uses.
   parse_X_er = the parser model over the C13 machine model of bits.EBSPReader (64-bit accumulator over
   the ESCAPED bytes, emulation prevention removed on the fly, NrBytesRead = position in the escaped
   stream); parse_X_br = the same parser text over the ideal bit-list reader (the instance the C15_*
   theorems are proved for).  zrun_ok raw: the unescaped bytes hold no run of more than 56 zero bits
   (the Exp-Golomb prefixes the 64-bit machine reads exactly). *)
From V.lib Require Import Base.
From V.c13 Require Import C13Spec C13Model.
From V.c15 Require Import C15Model C15Spec C15Examples C15HevcModel C15HevcSpec C15HevcExamples C15HevcSliceExamples
  C15AvcVuiProofs C15AvcPpsProofs C15Avc2Proofs C15HevcPpsProofs C15HevcSpsProofs C15HevcSliceProofs
  C15TieBaseProofs C15TieAvcProofs C15TieHevcProofs C15TieHevcSpsProofs C15TieMainProofs.

(* for EVERY byte string raw (an unescaped NAL unit: header + RBSP, well formed or not), escaped by the
   emulation-prevention rule: the two instances return the same result (value, Err, or OutOfFuel) *)
Theorem C15_reader_tie_avc_sps : forall raw beyond,
  bytes_ok raw = true -> zrun_ok raw = true ->
  parse_sps_er beyond (escape raw) = parse_sps_br beyond (escape raw).
Proof. exact tie_avc_sps. Qed.
Print Assumptions C15_reader_tie_avc_sps.

Theorem C15_reader_tie_avc_pps : forall raw spsmap,
  bytes_ok raw = true -> zrun_ok raw = true ->
  parse_pps_er spsmap (escape raw) = parse_pps_br spsmap (escape raw).
Proof. exact tie_avc_pps. Qed.
Print Assumptions C15_reader_tie_avc_pps.

(* sps_narrow / pps_narrow: the widths the slice parser derives from the parameter sets it is given
   fit the accumulator (log2_max_* <= 12, pic_size_in_map_units_minus1 < 2^32: true of every
   parameter set the parsers return for a NAL unit inside the standard's value ranges) *)
Theorem C15_reader_tie_avc_slice : forall raw spsmap ppsmap,
  bytes_ok raw = true -> zrun_ok raw = true ->
  (forall id s, spsmap id = Some s -> sps_narrow s = true) ->
  (forall id p, ppsmap id = Some p -> pps_narrow p = true) ->
  parse_slice_er spsmap ppsmap (escape raw) = parse_slice_br spsmap ppsmap (escape raw).
Proof. exact tie_avc_slice. Qed.
Print Assumptions C15_reader_tie_avc_slice.

Theorem C15_reader_tie_hevc_pps : forall raw spsmap,
  bytes_ok raw = true -> zrun_ok raw = true ->
  hparse_pps_er spsmap (escape raw) = hparse_pps_br spsmap (escape raw).
Proof. exact tie_hevc_pps. Qed.
Print Assumptions C15_reader_tie_hevc_pps.

(* hsps_narrow: log2_max_pic_order_cnt_lsb_minus4 of every SPS in the map is at most 52 (standard: 12) *)
Theorem C15_reader_tie_hevc_slice : forall raw spsmap ppsmap,
  bytes_ok raw = true -> zrun_ok raw = true ->
  (forall id s, spsmap id = Some s -> hsps_narrow s = true) ->
  hparse_slice_er spsmap ppsmap (escape raw) = hparse_slice_br spsmap ppsmap (escape raw).
Proof. exact tie_hevc_slice. Qed.
Print Assumptions C15_reader_tie_hevc_slice.

(* HEVC SPS: the Go parser reads palette predictor initialisers with BitDepth bits and
   lt_ref_pic_poc_lsb_sps with log2_max_pic_order_cnt_lsb bits, both taken from the stream without a
   range check (up to 263 bits); the machine reads up to 56 bits exactly.  Whenever the ideal-reader
   instance returns an SPS with bit depths (minus 8) <= 48 and log2_max_poc_lsb_minus4 <= 52 (standard:
   8 and 12), the EBSP-reader instance returns the same SPS. *)
Theorem C15_reader_tie_hevc_sps : forall raw s,
  bytes_ok raw = true -> zrun_ok raw = true ->
  hparse_sps_br (escape raw) = Ok s -> hsps_depths_ok s = true ->
  hparse_sps_er (escape raw) = Ok s.
Proof. exact tie_hevc_sps. Qed.
Print Assumptions C15_reader_tie_hevc_sps.

(* a byte string with two emulation-prevention bytes to insert and a 40-bit zero run *)
Example C15_reader_tie_hyps :
  let raw := [104; 0; 0; 1; 0; 0; 0; 0; 0; 2; 200; 128] in
  bytes_ok raw = true /\ zrun_ok raw = true
  /\ escape raw = [104; 0; 0; 3; 1; 0; 0; 3; 0; 0; 3; 0; 2; 200; 128]
  /\ zrun_ok [104; 0; 0; 0; 0; 0; 0; 0; 0; 128] = false.
Proof. vm_compute. repeat split; reflexivity. Qed.

(* the C15 parse theorems for the EBSP-reader instance, on the serialiser's bytes after emulation prevention *)
Theorem C15_avc_sps_er : forall v beyond,
  sps_valid v = true -> sps_offsets_zero v = true -> zrun_ok (raw_sps v) = true ->
  parse_sps_er beyond (nalu_sps v) = Ok (expected_sps beyond v).
Proof.
  intros v beyond Hv Ho Hz.
  exact (eq_trans (tie_avc_sps (raw_sps v) beyond (raw_nalu_ok _ _ _) Hz) (avc_sps v beyond Hv Ho)).
Qed.
Print Assumptions C15_avc_sps_er.

Theorem C15_avc_pps_er : forall chroma spsmap v,
  pps_valid chroma v = true ->
  (pps_has_tail v && pic_scaling_matrix_present_flag v = true ->
   spsmap (pps_seq_parameter_set_id v) = Some chroma) ->
  zrun_ok (raw_pps v) = true ->
  parse_pps_er spsmap (nalu_pps v) = Ok (expected_pps v).
Proof.
  intros chroma spsmap v Hv Hm Hz.
  exact (eq_trans (tie_avc_pps (raw_pps v) spsmap (raw_nalu_ok _ _ _) Hz) (avc_pps chroma spsmap v Hv Hm)).
Qed.
Print Assumptions C15_avc_pps_er.

Theorem C15_avc_slice_er : forall spsmap ppsmap sp pp v beyond cm s p,
  sps_valid sp = true -> pps_valid (eff_chroma_format_idc sp) pp = true -> slice_valid sp pp v = true ->
  sl_has_fmo_cycle pp = false ->
  (pps_has_tail pp && pic_scaling_matrix_present_flag pp = true ->
   cm (pps_seq_parameter_set_id pp) = Some (eff_chroma_format_idc sp)) ->
  zrun_ok (raw_sps sp) = true -> zrun_ok (raw_pps pp) = true -> zrun_ok (raw_slice sp pp v) = true ->
  (forall id x, spsmap id = Some x -> sps_narrow x = true) ->
  (forall id x, ppsmap id = Some x -> pps_narrow x = true) ->
  parse_sps_er beyond (nalu_sps sp) = Ok s -> parse_pps_er cm (nalu_pps pp) = Ok p ->
  ppsmap (sl_pic_parameter_set_id v) = Some p -> spsmap (pps_seq_parameter_set_id pp) = Some s ->
  parse_slice_er spsmap ppsmap (nalu_slice sp pp v) = Ok (expected_slice sp pp v).
Proof.
  intros spsmap ppsmap sp pp v beyond cm s p Hs Hp Hv Hf Hm Z1 Z2 Z3 N1 N2 Es Ep Mp Ms.
  rewrite <- (avc_slice spsmap ppsmap sp pp v beyond cm s p Hs Hp Hv Hf Hm
                (sps_er_br sp beyond s Z1 Es) (pps_er_br pp cm p Z2 Ep) Mp Ms).
  exact (tie_avc_slice (raw_slice sp pp v) spsmap ppsmap (raw_nalu_ok _ _ _) Z3 N1 N2).
Qed.
Print Assumptions C15_avc_slice_er.
Example C15_avc_er_hyps :
  zrun_ok (raw_sps ex_sps) = true /\ zrun_ok (raw_pps ex_pps) = true
  /\ zrun_ok (raw_sps ex_sl_sps) = true /\ zrun_ok (raw_pps ex_sl_pps) = true
  /\ zrun_ok (raw_slice ex_sl_sps ex_sl_pps ex_slice) = true
  /\ sps_narrow (expected_sps true ex_sl_sps) = true /\ pps_narrow (expected_pps ex_sl_pps) = true
  /\ parse_slice_er (fun _ => Some (expected_sps true ex_sl_sps)) (fun _ => Some (expected_pps ex_sl_pps))
       (nalu_slice ex_sl_sps ex_sl_pps ex_slice) = Ok (expected_slice ex_sl_sps ex_sl_pps ex_slice).
Proof. vm_compute. repeat split; reflexivity. Qed.

Theorem C15_hevc_pps_er : forall spsmap v,
  hpps_valid v = true -> spsmap (sx_pps_seq_parameter_set_id v) = true ->
  zrun_ok (hraw_pps v) = true ->
  hparse_pps_er spsmap (hnalu_pps v) = Ok (expected_hpps v).
Proof.
  intros spsmap v Hv Hm Hz.
  exact (eq_trans (tie_hevc_pps (hraw_pps v) spsmap (hraw_nalu_ok _ _ _ _) Hz) (hevc_pps spsmap v Hv Hm)).
Qed.
Print Assumptions C15_hevc_pps_er.
Example C15_hevc_pps_er_hyps :
  hpps_valid ex_hpps_tiles = true /\ zrun_ok (hraw_pps ex_hpps_tiles) = true
  /\ hparse_pps_er (fun id => id =? 3) (hnalu_pps ex_hpps_tiles) = Ok (expected_hpps ex_hpps_tiles).
Proof. vm_compute. repeat split; reflexivity. Qed.

Theorem C15_hevc_sps_er : forall v,
  hsps_valid v = true -> zrun_ok (hraw_sps v) = true ->
  hparse_sps_er (hnalu_sps v) = Ok (expected_hsps v).
Proof.
  intros v Hv Hz.
  exact (tie_hevc_sps (hraw_sps v) (expected_hsps v) (hraw_nalu_ok _ _ _ _) Hz (hevc_sps v Hv)
           (hsps_valid_depths v Hv)).
Qed.
Print Assumptions C15_hevc_sps_er.

Theorem C15_hevc_slice_er : forall spsmap ppsmap sp pp v,
  hsps_valid sp = true -> hpps_valid pp = true -> hslice_valid sp pp v = true ->
  ppsmap (sx_slice_pic_parameter_set_id v) = Some (expected_hpps pp) ->
  spsmap (sx_pps_seq_parameter_set_id pp) = Some (expected_hsps sp) ->
  zrun_ok (hraw_slice sp pp v) = true ->
  (forall id s, spsmap id = Some s -> hsps_narrow s = true) ->
  hparse_slice_er spsmap ppsmap (hnalu_slice sp pp v) = Ok (expected_hslice sp pp v).
Proof.
  intros spsmap ppsmap sp pp v Hs Hp Hv Mp Ms Hz Hn.
  exact (eq_trans (tie_hevc_slice (hraw_slice sp pp v) spsmap ppsmap (hraw_slice_ok sp pp v Hv) Hz Hn)
           (hevc_slice spsmap ppsmap sp pp v Hs Hp Hv Mp Ms)).
Qed.
Print Assumptions C15_hevc_slice_er.
(* ex_hsps: 4 emulation-prevention bytes inserted (112 -> 116 bytes); the slice: 1 (48 -> 49) *)
Example C15_hevc_er_hyps :
  hsps_valid C15HevcExamples.ex_hsps = true /\ zrun_ok (hraw_sps C15HevcExamples.ex_hsps) = true
  /\ lenN (hraw_sps C15HevcExamples.ex_hsps) = 112 /\ lenN (hnalu_sps C15HevcExamples.ex_hsps) = 116
  /\ hsps_narrow (expected_hsps ex_hsps) = true
  /\ zrun_ok (hraw_slice ex_hsps ex_hpps_b ex_hslice_b) = true
  /\ lenN (hnalu_slice ex_hsps ex_hpps_b ex_hslice_b) = lenN (hraw_slice ex_hsps ex_hpps_b ex_hslice_b) + 1.
Proof. vm_compute. repeat split; reflexivity. Qed.
