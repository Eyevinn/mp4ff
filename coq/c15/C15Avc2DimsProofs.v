(* C15Avc2DimsProofs.v — the derivation behind the repaired avc.ParseSliceHeader
   (C15Avc2Model.parse_slice_header2): PicSizeInMapUnits is recomputed exactly from the fields the SPS keeps. *)
From V.lib Require Import Base.
From V.c13 Require Import C13Spec C13Model.
From V.c15 Require Import C15Model C15Spec C15BitProofs C15AvcSpsProofs C15Avc2Model.

(* PicSizeInMapUnits (7-17) on the syntax elements *)
Definition pic_size_in_map_units (sp : sps_syntax) : N :=
  (pic_width_in_mbs_minus1 sp + 1) * (pic_height_in_map_units_minus1 sp + 1).

(* adding the crop amount back in Go's uint arithmetic restores the size it was taken from *)
Lemma uncrop d cu a b size :
  d + cu * (a + b) = size -> a + b < 18446744073709551616 -> size < 18446744073709551616 ->
  u64 (d + u64 (u64 (a + b) * cu)) = size.
Proof.
  intros <- Hab Hs. rewrite (u64_id (a + b)) by exact Hab.
  rewrite (N.mul_comm (a + b)), (u64_id (cu * (a + b))); [apply u64_id; exact Hs|].
  apply N.le_lt_trans with (2 := Hs). apply N.le_add_l.
Qed.

Lemma map_units_of_samples W H k :
  0 < k -> W * H < 18446744073709551616 -> u64 (W * 16 / 16 * (k * H * 16 / (16 * k))) = W * H.
Proof.
  intros Hk Hs. rewrite N.div_mul by discriminate.
  replace (k * H * 16) with (H * (16 * k)) by lia. rewrite N.div_mul by lia. apply u64_id. exact Hs.
Qed.

(* the derivation: SPS.picSizeInMapUnits() applied to what ParseSPSNALUnit returns is PicSizeInMapUnits *)
Lemma pic_size_expected offmap nb0 nb1 beyond sp : sps_valid sp = true ->
  sps_pic_size_in_map_units (expected_sps_gen offmap nb0 nb1 beyond sp) = pic_size_in_map_units sp.
Proof.
  intros Hv.
  destruct (display_plus_crop sp Hv) as (Hw & Hh & _).
  pose proof (eff_chroma_le3 sp Hv) as Hc.
  destruct (sps_valid_bounds sp Hv) as (_ & _ & _ & _ & _ & _ & _ & HW & HH & Hlr & Htb & _).
  unfold sps_pic_size_in_map_units, pic_size_in_map_units.
  cbn [sps_frame_mbs_only sps_frame_cropping sps_chroma_format_idc sps_width sps_height sps_crop_left sps_crop_right
       sps_crop_top sps_crop_bottom expected_sps_gen].
  fold (fmo_n sp).
  rewrite (crop_units_table sp Hc).
  cbn [fst snd].
  assert (Hk : 0 < 2 - fmo_n sp) by (unfold fmo_n; destruct (frame_mbs_only_flag sp); lia).
  unfold crop_w, crop_h in Hw, Hh.
  unfold pic_width_in_samples, frame_height_in_samples in Hw, Hh.
  destruct (frame_cropping_flag sp); cbn [fst snd].
  - rewrite (uncrop _ _ _ _ _ Hw), (uncrop _ _ _ _ _ Hh) by nia.
    apply map_units_of_samples; [exact Hk | nia].
  - rewrite N.add_0_r in Hw, Hh. rewrite Hw, Hh. apply map_units_of_samples; [exact Hk | nia].
Qed.
