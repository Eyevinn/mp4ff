(* C15Avc2Proofs.v — avc.ParseSliceHeader (model, ideal bit reader) applied to the slice NAL unit built by
   the independent serialiser of slice_header() (7.3.3) returns the coded values, resolves the PPS through
   the slice's pic_parameter_set_id and the SPS through that PPS's seq_parameter_set_id, and Size = bytes
   of the escaped NAL unit holding the header.  Proved once, for the repaired text
   (C15Avc2Model.parse_slice_header2: slice-group map types 3..5 included, finding F7); the text of
   C15Model differs from it only in the slice_group_change_cycle step, so its theorem is the case of a
   PPS without that element. *)
From V.lib Require Import Base.
From V.c13 Require Import C13Spec C13Model C13EscProofs.
From V.c15 Require Import C15Model C15Spec C15BitProofs C15AvcSpsProofs C15AvcVuiProofs C15AvcPpsProofs C15AvcSliceProofs
  C15HevcSliceBaseProofs C15Avc2Model C15Avc2DimsProofs.

Lemma fmo_rate_ok c pp : pps_valid c pp = true -> sl_has_fmo_cycle pp = true ->
  slice_group_change_rate_minus1 pp < 4294967295.
Proof.
  intros Hv Hf. unfold sl_has_fmo_cycle in Hf. unfold pps_valid in Hv. split_all.
  match goal with H : (0 <? num_slice_groups_minus1 pp) = true |- _ => rewrite H in * end.
  split_all. unfold ue_ok in *. lia.
Qed.

Lemma ceil_div_eq s r : 0 < r -> s / r + (if s mod r =? 0 then 0 else 1) = (s + r - 1) / r.
Proof.
  intros Hr. pose proof (N.div_mod s r ltac:(lia)) as Hdm. pose proof (N.mod_lt s r ltac:(lia)) as Hm.
  destruct (N.eqb_spec (s mod r) 0) as [E|E].
  - rewrite N.add_0_r. apply (N.div_unique (s + r - 1) r (s / r) (r - 1)); lia.
  - apply (N.div_unique (s + r - 1) r (s / r + 1) (s mod r - 1)); lia.
Qed.

Lemma cycle_bits_le32 sp pp : pic_size_in_map_units sp < 4294967296 -> slice_group_change_cycle_bits sp pp <= 32.
Proof.
  intros Hs. unfold slice_group_change_cycle_bits, pic_size_in_map_units in *. cbv zeta.
  set (sz := (pic_width_in_mbs_minus1 sp + 1) * (pic_height_in_map_units_minus1 sp + 1)) in *.
  set (r := slice_group_change_rate_minus1 pp + 1).
  assert (Hq : (sz + r - 1) / r <= sz).
  { destruct (N.eq_dec sz 0) as [E|E].
    - rewrite E. rewrite N.div_small by (unfold r; lia). lia.
    - apply N.div_le_upper_bound; [unfold r; lia|]. unfold r. nia. }
  apply N.log2_up_le_pow2; [lia|]. change (2 ^ 32) with 4294967296. lia.
Qed.

(* the slice_group_change_cycle step of the repaired parser *)
Lemma sgcc_step raw sp pp v pos :
  pic_size_in_map_units sp < 4294967296 -> slice_group_change_rate_minus1 pp < 4294967295 ->
  slice_group_change_cycle v < 2 ^ slice_group_change_cycle_bits sp pp ->
  parses raw
    (if u64 (slice_group_change_rate_minus1 pp + 1) =? 0 then fail
     else rd BR (ceil_log2 (u64 (u64 (pic_size_in_map_units sp / u64 (slice_group_change_rate_minus1 pp + 1)
                                      + (if pic_size_in_map_units sp mod u64 (slice_group_change_rate_minus1 pp + 1) =? 0
                                         then 0 else 1)) + 1))))
    pos (u (slice_group_change_cycle_bits sp pp) (slice_group_change_cycle v)) (slice_group_change_cycle v).
Proof.
  intros Hs Hr Hc. set (r := slice_group_change_rate_minus1 pp + 1).
  rewrite (u64_id r) by (unfold r; lia).
  replace (r =? 0) with false by (unfold r; lia).
  rewrite ceil_div_eq by (unfold r; lia).
  set (q := (pic_size_in_map_units sp + r - 1) / r).
  assert (Hq : q <= pic_size_in_map_units sp).
  { unfold q. destruct (N.eq_dec (pic_size_in_map_units sp) 0) as [E|E].
    - rewrite E. rewrite N.div_small by (unfold r; lia). lia.
    - apply N.div_le_upper_bound; [unfold r; lia|]. unfold r. nia. }
  rewrite (u64_id q), (u64_id (q + 1)) by lia.
  rewrite ceil_log2_eq by (change (2 ^ 32) with 4294967296; lia).
  unfold slice_group_change_cycle_bits, pic_size_in_map_units in *. fold r. fold q.
  apply parses_rd. exact Hc.
Qed.

Lemma parses_slice_header2 s p c spsmap ppsmap sp pp v :
  sps_valid sp = true -> pps_valid c pp = true -> slice_valid sp pp v = true ->
  (sl_has_fmo_cycle pp = true -> pic_size_in_map_units sp < 4294967296) ->
  nbytes_at (raw_slice sp pp v) (8 + lenN (ser_slice_header sp pp v)) < 4294967296 ->
  sps_view s sp -> pps_view p pp ->
  ppsmap (sl_pic_parameter_set_id v) = Some p -> spsmap (pps_seq_parameter_set_id pp) = Some s ->
  parses (raw_slice sp pp v) (parse_slice_header2 BR spsmap ppsmap) 0
    (u 8 (32 * sl_nal_ref_idc v + sl_nal_unit_type v) ++ ser_slice_header sp pp v)
    (expected_slice sp pp v).
Proof.
  intros Hsv Hpv Hv Hps Hsz Vs Vp Hpm Hsm.
  destruct Vs as (S1 & S2 & S3 & S4 & S5 & S6 & S7 & Vsz).
  destruct Vp as (P1 & P2 & P3 & P4 & P5 & P6 & P7 & P8 & P9 & P10 & Vr).
  destruct (pps_valid_bounds c pp Hpv) as (_ & Hppid & _ & _ & Hd0 & Hd1 & _).
  destruct (sps_valid_bounds sp Hsv) as (_ & _ & _ & _ & Hfn & Hpoc & _).
  destruct (slice_valid_bounds sp pp v Hv)
    as (Hr & Ht & Bmb & Bid & Bcp & Bfn & Bidr & Blsb & Bred & Bl0 & Bl1 & Br0 & Br1 & Bmm & Bcab & Bddf & Bcyc).
  destruct (slice_pwt_counts c sp pp v Hpv Hv) as (Bn0 & Bn1 & Bpwt).
  (* slice_group_change_cycle: present only with slice-group map types 3..5 *)
  assert (Hcyc : u32 (if sl_has_fmo_cycle pp then slice_group_change_cycle v else 0)
                 = (if sl_has_fmo_cycle pp then slice_group_change_cycle v else 0)).
  { destruct (sl_has_fmo_cycle pp); [|reflexivity]. apply u32_id.
    apply N.lt_le_trans with (1 := Bcyc). change 4294967296 with (2 ^ 32).
    apply N.pow_le_mono_r; [discriminate | apply cycle_bits_le32; apply Hps; reflexivity]. }
  destruct (slice_valid_items sp pp v Hv)
    as ((Ic1 & Ic2 & Ic3 & Iqp & Iqs & Ial & Ibe) & Ir0 & Ir1 & Ild & Icd & _ & _ & Imm).
  clear Hsv Hv.
  destruct (nal_header_u8 (sl_nal_ref_idc v) (sl_nal_unit_type v) Hr) as (_ & Hland & Hlt & Hshr); [tauto|].
  assert (Hchk : negb ((sl_nal_unit_type v =? 1) || (sl_nal_unit_type v =? 2) || (sl_nal_unit_type v =? 5)
                       || (sl_nal_unit_type v =? 19)) = false)
    by (destruct Ht as [-> | ->]; reflexivity).
  set (raw := raw_slice sp pp v) in *.
  unfold parse_slice_header2.
  pbind ltac:(apply parses_rd; exact Hlt).
  rewrite Hland, Hshr, Hchk. cbv iota.
  unfold ser_slice_header.
  preads.
  rewrite (u32_id (sl_pic_parameter_set_id v)) by (rewrite Bid; clear - Hppid; lia).
  rewrite Hpm. cbv beta iota. rewrite P1, Hsm. cbv beta iota.
  unfold sps_chroma_array_type.
  rewrite ?S1, ?S2, ?S3, ?S4, ?S5, ?S6, ?S7, ?P2, ?P3, ?P4, ?P5, ?P6, ?P7, ?P8, ?P9, ?P10.
  clear S1 S2 S3 S4 S5 S6 S7 P1 P2 P3 P4 P5 P6 P7 P8 P9 P10 Hpm Hsm Hland Hshr Hchk Hlt Hr Ht Bid Hppid.
  cbv iota.
  fold (chroma_array_type sp). fold (sl_cat_nonzero sp).
  unfold expected_slice. cbv zeta beta.
  unfold eff_l0, eff_l1, sl_override, rplm_all, last_mmco, mmco_run in *.
  unfold sl_separate_colour_plane, idr_pic, sl_poc0, sl_poc1, sl_bottom_delta, sl_field_pic, sl_has_ref_idx,
    sl_has_pwt, is_P, is_B, is_I, is_SP, is_SI, sl_type5 in *.
  set (tP := slice_type v mod 5 =? 0) in *. set (tB := slice_type v mod 5 =? 1) in *.
  set (tI := slice_type v mod 5 =? 2) in *. set (tSP := slice_type v mod 5 =? 3) in *.
  set (tSI := slice_type v mod 5 =? 4) in *.
  pbind ltac:(apply parses_opt; intros _; apply parses_rd; exact Bcp).
  pbind ltac:(apply parses_rd; exact Bfn).
  pbind ltac:(apply parses_fld).
  preads.
  rewrite (app_assoc (opt_bits (pic_order_cnt_type sp =? 0) _)).
  pbind ltac:(apply parses_poc; exact Blsb).
  preads.
  pbind ltac:(apply parses_nri; assumption).
  pbind ltac:(apply parses_rplm_block; assumption).
  pbind ltac:(apply parses_rplm_block; assumption).
  pbind ltac:(apply parses_pwt_block; assumption).
  pbind ltac:(apply parses_marking; assumption).
  preads.
  pbind ltac:(apply parses_qs).
  pbind ltac:(apply parses_db; exact Bddf).
  plast ltac:(apply (parses_opt' raw _ (sl_has_fmo_cycle pp) _
                       (if sl_has_fmo_cycle pp then slice_group_change_cycle v else 0) 0);
              [intros Hf; rewrite Hf; cbv zeta; rewrite Vsz, (Vr Hf);
               apply sgcc_step; [exact (Hps Hf) | exact (fmo_rate_ok c pp Hpv Hf) | exact Bcyc]
              |intros Hf; rewrite Hf; reflexivity]).
  eapply parses_bind_peek; [apply parses_get_nbytes|]. cbv beta.
  apply parses_ret_eq.
  rewrite Hcyc.
  rewrite !i32_zz by assumption.
  rewrite (i32_id (slice_qp_delta v)) by assumption.
  change (u32 0) with 0.
  rewrite if_false_and, if3_or, !last_rplm_app.
  unfold last_mm. cbv beta.
  match goal with |- context [u32 (nbytes_at ?r ?e)] =>
    replace e with (8 + lenN (ser_slice_header sp pp v)) end.
  2:{ subst tP tB tI tSP tSI.
      unfold ser_slice_header, sl_separate_colour_plane, idr_pic, sl_poc0, sl_poc1, sl_bottom_delta, sl_field_pic,
        sl_has_ref_idx, sl_has_pwt, is_P, is_B, is_I, is_SP, is_SI, sl_type5.
      rewrite !lenN_app. rewrite ?lenN_u. clear. lia. }
  rewrite (u32_id _ Hsz). subst raw.
  pose proof (pow_le_16 _ Hfn) as Hp1. pose proof (pow_le_16 _ Hpoc) as Hp2.
  (* what is left: u32 of values that fit *)
  clear - Bmb Bcp Bfn Bidr Blsb Bred Bcab Hp1 Hp2.
  rewrite (u32_id (first_mb_in_slice v)), (u32_id (frame_num v)), !u32_n by lia.
  reflexivity.
Qed.

(* ------------------------------------------------------------------ the header fits in 2^32 bytes *)
(* walks the serialised header: one length lemma per constructor *)
Ltac len_bound :=
  lazymatch goal with
  | |- lenN (flat_map ser_mmco _ ++ ue_bits 0) <= _ => apply len_mmco_le; assumption
  | |- lenN (opt_bits (sl_has_pwt _ _) _) <= _ => eassumption
  | |- lenN (opt_bits (sl_has_fmo_cycle _) _) <= _ => eassumption
  | |- lenN (_ ++ _) <= _ => eapply len_app_le; [len_bound | len_bound]
  | |- lenN (opt_bits _ _) <= _ => apply len_opt_le; intros ?; len_bound
  | |- lenN (if _ then _ else _) <= _ => eapply len_if_le; [len_bound | len_bound]
  | |- lenN (ue_bits _) <= _ => apply len_ue_le; assumption
  | |- lenN (se_bits _) <= _ => apply len_se_le; assumption
  | |- lenN (fl _) <= _ => rewrite lenN_fl; apply N.le_refl
  | |- lenN (u _ _) <= _ => apply (len_u_le _ _ 16); assumption
  | |- lenN (ser_rplm _ _) <= _ => apply len_rplm_le; assumption
  end.

Lemma slice_header_len2 sp pp v c :
  sps_valid sp = true -> pps_valid c pp = true -> slice_valid sp pp v = true ->
  (sl_has_fmo_cycle pp = true -> pic_size_in_map_units sp < 4294967296) ->
  lenN (ser_slice_header sp pp v) <= 1000000.
Proof.
  intros Hsv Hpv Hv Hps.
  assert (Hcyc : lenN (opt_bits (sl_has_fmo_cycle pp)
                   (u (slice_group_change_cycle_bits sp pp) (slice_group_change_cycle v))) <= 32).
  { apply len_opt_le. intros Hf. rewrite lenN_u. apply cycle_bits_le32, Hps, Hf. }
  destruct (sps_valid_bounds sp Hsv) as (_ & _ & _ & _ & Hfn & Hpoc & _).
  destruct (pps_valid_bounds c pp Hpv) as (_ & Hppid & _).
  destruct (slice_valid_bounds sp pp v Hv)
    as (_ & _ & Bmb & Bid & _ & _ & Bidr & _ & Bred & Bl0 & Bl1 & Br0 & Br1 & Bmm & Bcab & Bddf & _).
  destruct (slice_pwt_counts c sp pp v Hpv Hv) as (Bn0 & Bn1 & Bpwt). cbv zeta in Bpwt.
  destruct (slice_valid_items sp pp v Hv)
    as ((Ic1 & Ic2 & Ic3 & Iqp & Iqs & Ial & Ibe) & Ir0 & Ir1 & Ild & Icd & Iw0 & Iw1 & Imm).
  apply N.ltb_lt in Ild. apply N.ltb_lt in Icd.
  assert (Hty : slice_type v <= 9) by (unfold slice_valid in Hv; split_all; lia).
  clear Hsv Hpv Hv Hps.
  (* every ue(v) element of the header is below 2^32 - 1, every u(v) width at most 16 *)
  assert (Hue : first_mb_in_slice v < 4294967295 /\ slice_type v < 4294967295
                /\ sl_pic_parameter_set_id v < 4294967295 /\ idr_pic_id v < 4294967295
                /\ redundant_pic_cnt v < 4294967295 /\ num_ref_idx_l0_active_minus1 v < 4294967295
                /\ num_ref_idx_l1_active_minus1 v < 4294967295 /\ cabac_init_idc v < 4294967295
                /\ disable_deblocking_filter_idc v < 4294967295 /\ (2 : N) <= 16
                /\ log2_max_frame_num_minus4 sp + 4 <= 16 /\ log2_max_pic_order_cnt_lsb_minus4 sp + 4 <= 16) by lia.
  destruct Hue as (U1 & U2 & U3 & U4 & U5 & U6 & U7 & U8 & U9 & U10 & U11 & U12).
  assert (Hpwt : lenN (opt_bits (sl_has_pwt pp v)
                   (ue_bits (luma_log2_weight_denom v)
                    ++ opt_bits (sl_cat_nonzero sp) (ue_bits (chroma_log2_weight_denom v))
                    ++ flat_map (ser_pwt_entry sp) (pwt_l0 v)
                    ++ opt_bits (is_B v) (flat_map (ser_pwt_entry sp) (pwt_l1 v)))) <= 63 + (63 + (12800 + 12800))).
  { apply len_opt_le. intros Hc. destruct (Bpwt Hc) as (Hw0 & Hw1).
    apply len_app_le; [apply len_ue_le; assumption|].
    apply len_app_le; [apply len_opt_le; intros _; apply len_ue_le; assumption|].
    apply len_app_le.
    - eapply len_pwt_list_le; eassumption.
    - apply len_opt_le. intros HB. eapply len_pwt_list_le; [eassumption | exact (Hw1 HB) | exact Bn1]. }
  unfold ser_slice_header.
  eapply N.le_trans; [len_bound | clear; lia].
Qed.

Lemma slice_size_fits2 sp pp v c :
  sps_valid sp = true -> pps_valid c pp = true -> slice_valid sp pp v = true ->
  (sl_has_fmo_cycle pp = true -> pic_size_in_map_units sp < 4294967296) ->
  nbytes_at (raw_slice sp pp v) (8 + lenN (ser_slice_header sp pp v)) < 4294967296.
Proof.
  intros Hsv Hpv Hv Hps.
  pose proof (slice_header_len2 sp pp v c Hsv Hpv Hv Hps) as Hl.
  pose proof (nbytes_at_le (raw_slice sp pp v) (8 + lenN (ser_slice_header sp pp v))) as Hn.
  lia.
Qed.

(* ------------------------------------------------------------------ the NAL unit *)
(* any (spsmap, ppsmap) holding what the parameter-set parsers returned; slice_group_change_cycle is
   u(v) with v up to 32 when it is present *)
Lemma avc_slice_any spsmap ppsmap sp pp v beyond cm s p :
  sps_valid sp = true -> pps_valid (eff_chroma_format_idc sp) pp = true -> slice_valid sp pp v = true ->
  (sl_has_fmo_cycle pp = true -> pic_size_in_map_units sp < 4294967296) ->
  (pps_has_tail pp && pic_scaling_matrix_present_flag pp = true ->
   cm (pps_seq_parameter_set_id pp) = Some (eff_chroma_format_idc sp)) ->
  parse_sps_br beyond (nalu_sps sp) = Ok s -> parse_pps_br cm (nalu_pps pp) = Ok p ->
  ppsmap (sl_pic_parameter_set_id v) = Some p -> spsmap (pps_seq_parameter_set_id pp) = Some s ->
  parse_slice2_br spsmap ppsmap (nalu_slice sp pp v) = Ok (expected_slice sp pp v).
Proof.
  intros Hsv Hpv Hv Hps Hcm Hs Hp Hpm Hsm.
  rewrite (avc_sps_go sp beyond Hsv) in Hs. injection Hs as <-.
  rewrite (avc_pps _ cm pp Hpv Hcm) in Hp. injection Hp as <-.
  destruct (slice_valid_bounds sp pp v Hv) as (Hr & Ht & _).
  destruct (nal_header_u8 (sl_nal_ref_idc v) (sl_nal_unit_type v) Hr) as (Hh & _); [tauto|].
  pose proof (parses_slice_header2 _ _ _ spsmap ppsmap sp pp v Hsv Hpv Hv Hps
                (slice_size_fits2 sp pp v _ Hsv Hpv Hv Hps)
                (sps_view_expected _ _ _ _ sp Hsv) (pps_view_expected pp) Hpm Hsm) as Hparse.
  unfold parse_slice2_br, run, nalu_slice. rewrite binit_nalu. fold (raw_slice sp pp v).
  rewrite Hh. rewrite <- app_assoc. rewrite app_assoc.
  rewrite Hparse. reflexivity.
Qed.

(* every valid slice incl. slice-group map types 3..5 *)
Lemma avc_slice2 spsmap ppsmap sp pp v beyond cm s p :
  sps_valid sp = true -> pps_valid (eff_chroma_format_idc sp) pp = true -> slice_valid sp pp v = true ->
  pic_size_in_map_units sp < 4294967296 ->
  (pps_has_tail pp && pic_scaling_matrix_present_flag pp = true ->
   cm (pps_seq_parameter_set_id pp) = Some (eff_chroma_format_idc sp)) ->
  parse_sps_br beyond (nalu_sps sp) = Ok s -> parse_pps_br cm (nalu_pps pp) = Ok p ->
  ppsmap (sl_pic_parameter_set_id v) = Some p -> spsmap (pps_seq_parameter_set_id pp) = Some s ->
  parse_slice2_br spsmap ppsmap (nalu_slice sp pp v) = Ok (expected_slice sp pp v).
Proof. intros Hsv Hpv Hv Hps. apply avc_slice_any; auto. Qed.

(* The text of C15Model and the repaired text differ in the slice_group_change_cycle step only: on a
   slice NAL unit whose PPS (the one the map holds under the slice's pic_parameter_set_id) has no
   slice-group change cycle they run the same reads. *)
Lemma slice_texts_agree spsmap ppsmap sp pp v p :
  slice_valid sp pp v = true -> pic_parameter_set_id pp <= 255 ->
  ppsmap (sl_pic_parameter_set_id v) = Some p ->
  (0 <? pps_num_slice_groups_minus1 p) && (3 <=? pps_slice_group_map_type p)
    && (pps_slice_group_map_type p <=? 5) = false ->
  parse_slice_br spsmap ppsmap (nalu_slice sp pp v) = parse_slice2_br spsmap ppsmap (nalu_slice sp pp v).
Proof.
  intros Hv Hid Hpm Hf.
  destruct (slice_valid_bounds sp pp v Hv) as (Hr & Ht & _ & Bid & _).
  destruct (nal_header_u8 (sl_nal_ref_idc v) (sl_nal_unit_type v) Hr) as (Hh & _ & Hlt & _); [tauto|].
  unfold parse_slice_br, parse_slice2_br, run, nalu_slice. rewrite binit_nalu, Hh.
  destruct (ser_slice_header_start sp pp v) as [T ->]. rewrite <- !app_assoc.
  match goal with |- match ?a with _ => _ end = match ?b with _ => _ end => replace a with b; [reflexivity|] end.
  unfold parse_slice_header, parse_slice_header2.
  apply bind_ext. intros hdr s1 E. rewrite (parses_rd _ 8 _ 0 Hlt) in E. injection E as <- <-.
  destruct (negb _); [reflexivity|].
  apply bind_ext. intros a1 s1 E. rewrite (parses_ue _ _ _) in E. injection E as <- <-.
  apply bind_ext. intros a2 s2 E. rewrite (parses_ue _ _ _) in E. injection E as <- <-.
  apply bind_ext. intros a3 s3 E. rewrite (parses_ue _ _ _) in E. injection E as <- <-.
  rewrite (u32_id (sl_pic_parameter_set_id v)) by (rewrite Bid; lia).
  rewrite Hpm. cbv beta iota. destruct (spsmap (pps_sps_id p)); [|reflexivity].
  rewrite Hf. reflexivity.
Qed.

Lemma avc_slice spsmap ppsmap sp pp v beyond cm s p :
  sps_valid sp = true -> pps_valid (eff_chroma_format_idc sp) pp = true -> slice_valid sp pp v = true ->
  sl_has_fmo_cycle pp = false ->
  (pps_has_tail pp && pic_scaling_matrix_present_flag pp = true ->
   cm (pps_seq_parameter_set_id pp) = Some (eff_chroma_format_idc sp)) ->
  parse_sps_br beyond (nalu_sps sp) = Ok s -> parse_pps_br cm (nalu_pps pp) = Ok p ->
  ppsmap (sl_pic_parameter_set_id v) = Some p -> spsmap (pps_seq_parameter_set_id pp) = Some s ->
  parse_slice_br spsmap ppsmap (nalu_slice sp pp v) = Ok (expected_slice sp pp v).
Proof.
  intros Hsv Hpv Hv Hg Hcm Hs Hp Hpm Hsm.
  rewrite <- (avc_slice_any spsmap ppsmap sp pp v beyond cm s p Hsv Hpv Hv) by (assumption || congruence).
  destruct (pps_valid_bounds _ pp Hpv) as (_ & Hid & _).
  apply (slice_texts_agree spsmap ppsmap sp pp v p Hv Hid Hpm).
  rewrite (avc_pps _ cm pp Hpv Hcm) in Hp. injection Hp as <-.
  destruct (pps_view_expected pp) as (_ & _ & _ & _ & _ & _ & _ & _ & _ & P10 & _). rewrite P10. exact Hg.
Qed.
