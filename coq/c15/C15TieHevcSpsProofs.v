(* C15TieHevcSpsProofs.v — hevc.ParseSPSNALUnit: whenever the parser model over the ideal bit-list
   reader returns an SPS whose bit depths (minus 8) are at most 48 and whose
   log2_max_pic_order_cnt_lsb_minus4 is at most 52 (the standard allows 8 and 12), the parser model over
   the C13 machine model of bits.EBSPReader returns the same SPS.  (The Go parser reads palette
   predictor initialisers with BitDepth bits and lt_ref_pic_poc_lsb_sps with log2_max_poc_lsb bits
   without range checks; beyond 56 bits the 64-bit accumulator wraps.)  No axioms. *)
From V.lib Require Import Base.
From V.c13 Require Import C13Spec C13Model C13ReaderProofs.
From V.c15 Require Import C15Model C15HevcModel C15TieBaseProofs C15TieRelProofs C15TieAvcProofs C15TieHevcProofs.

Definition hsps_depths_ok (s : hsps) : bool :=
  (h_bdl s <=? 48) && (h_bdc s <=? 48) && (h_log2_poc s <=? 52).

Section HevcSps.
  Variable raw : list N.
  Hypothesis raw_ok : Forall lt256 raw.

  Ltac tie_sub ::= tie_loops.
  Local Hint Resolve rel_hskip rel_hst_rps rel_hext_data rel_hparse_end : tie.

  (* ---------------------------------------------------------------- the unconditional pieces *)
  Lemma rel_hprofile st : MRel raw st st (hparse_profile ER) (hparse_profile BR).
  Proof. unfold hparse_profile. tie. Qed.
  Local Hint Resolve rel_hprofile : tie.
  Lemma rel_hsub st f : MRel raw st st (hparse_sub ER f) (hparse_sub BR f).
  Proof. unfold hparse_sub. tie. Qed.
  Local Hint Resolve rel_hsub : tie.
  Lemma rel_hptl st ms : MRel raw st st (hparse_ptl ER ms) (hparse_ptl BR ms).
  Proof. unfold hparse_ptl. tie. Qed.

  Lemma rel_hrps_loop : forall cnt idx num acc,
    MRel raw false false (hparse_rps_loop ER cnt idx num acc) (hparse_rps_loop BR cnt idx num acc).
  Proof. induction cnt as [|c IH]; intros idx num acc; cbn [hparse_rps_loop]; tie. Qed.

  Lemma rel_hcpb st sp : MRel raw st st (hparse_cpb ER sp) (hparse_cpb BR sp).
  Proof. unfold hparse_cpb. tie. Qed.
  Local Hint Resolve rel_hcpb : tie.
  Lemma rel_hsubhrd n v sp : MRel raw false false (hparse_subhrd ER n v sp) (hparse_subhrd BR n v sp).
  Proof. unfold hparse_subhrd. tie. Qed.
  Local Hint Resolve rel_hsubhrd : tie.
  Lemma rel_hhrd ms : MRel raw false false (hparse_hrd ER ms) (hparse_hrd BR ms).
  Proof. unfold hparse_hrd. tie. Qed.
  Lemma rel_hbsr st : MRel raw st st (hparse_bsr ER) (hparse_bsr BR).
  Proof. unfold hparse_bsr. tie. Qed.
  Local Hint Resolve rel_hhrd rel_hbsr : tie.
  Lemma rel_hvui ms : MRel raw false false (hparse_vui ER ms) (hparse_vui BR ms).
  Proof. unfold hparse_vui. tie. Qed.

  Lemma rel_hsps_3d st : MRel raw st st (hparse_sps_3d ER) (hparse_sps_3d BR).
  Proof. unfold hparse_sps_3d. tie. Qed.

  Ltac tie_rd_side ::= first [ tie_width | lia ].
  Lemma rel_hsps_scc st chroma bdl bdc : bdl <= 48 -> bdc <= 48 ->
    MRel raw st st (hparse_sps_scc ER chroma bdl bdc) (hparse_sps_scc BR chroma bdl bdc).
  Proof. intros H1 H2. unfold hparse_sps_scc. tie. Qed.
  Local Hint Resolve rel_hsps_3d rel_hsps_scc : tie.

  Lemma rel_hsps_ext st chroma bdl bdc : bdl <= 48 -> bdc <= 48 ->
    MRel raw st st (hparse_sps_ext ER chroma bdl bdc) (hparse_sps_ext BR chroma bdl bdc).
  Proof. intros H1 H2. unfold hparse_sps_ext. tie. Qed.

  (* ---------------------------------------------------------------- the conditional walk *)
  (* whenever the bit-list side returns a value satisfying Q, the machine side returns it too *)
  Definition MRelQ {A} (Q : A -> Prop) (m1 : rstate -> res (A * rstate)) (m2 : bstate -> res (A * bstate)) : Prop :=
    forall s b, Sim raw false s b ->
      match m2 b with Ok (c, _) => Q c -> exists s', m1 s = Ok (c, s') | _ => True end.
  (* the bit-list side never returns a value satisfying Q *)
  Definition NoQ {A} (Q : A -> Prop) (m2 : bstate -> res (A * bstate)) : Prop :=
    forall b, match m2 b with Ok (c, _) => ~ Q c | _ => True end.

  Lemma MRelQ_of {A} (Q : A -> Prop) m1 m2 : MRel raw false false m1 m2 -> MRelQ Q m1 m2.
  Proof.
    intros H s b HS. specialize (H s b HS). unfold ORel in H.
    destruct (m1 s) as [[a1 s1]| | |], (m2 b) as [[a2 b2]| | |]; try contradiction; try exact I.
    destruct H as [-> _]. intros _. exists s1. reflexivity.
  Qed.

  Lemma MRelQ_bind {A B} (Q : B -> Prop) (m1 : rstate -> res (A * rstate)) m2 k1 k2 :
    MRel raw false false m1 m2 -> (forall a, MRelQ Q (k1 a) (k2 a)) -> MRelQ Q (bind m1 k1) (bind m2 k2).
  Proof.
    intros Hm Hk s b HS. specialize (Hm s b HS). unfold bind, ORel in *.
    destruct (m1 s) as [[a1 s1]| | |], (m2 b) as [[a2 b2]| | |]; try contradiction; try exact I.
    destruct Hm as [-> S1]. apply (Hk a2 s1 b2 S1).
  Qed.

  Lemma MRelQ_bind_guard {A B} (G : Prop) (Q : B -> Prop) (m1 : rstate -> res (A * rstate)) m2 k1 k2 :
    (G \/ ~ G) -> (G -> MRel raw false false m1 m2) -> (forall a, MRelQ Q (k1 a) (k2 a)) ->
    (~ G -> NoQ Q (bind m2 k2)) -> MRelQ Q (bind m1 k1) (bind m2 k2).
  Proof.
    intros [HG|HG] Hm Hk Hn.
    - apply MRelQ_bind; [apply Hm; exact HG|exact Hk].
    - intros s b _. specialize (Hn HG b). destruct (bind m2 k2 b) as [[c b']| | |]; try exact I.
      intros HQ. contradiction.
  Qed.

  Lemma NoQ_bind {A B} (Q : B -> Prop) (m : bstate -> res (A * bstate)) k : (forall a, NoQ Q (k a)) -> NoQ Q (bind m k).
  Proof. intros Hk b. unfold bind. destruct (m b) as [[a b1]| | |]; try exact I. apply Hk. Qed.
  Lemma NoQ_fail {A} (Q : A -> Prop) : NoQ Q fail.
  Proof. intros b. exact I. Qed.
  Lemma NoQ_end {A} (Q : A -> Prop) (c : A) : ~ Q c -> NoQ Q (hparse_end BR c).
  Proof.
    intros H b. unfold hparse_end, bind, rd_trailing, get_err, rd, fail, ret.
    destruct (r_trailing BR b) as [tr b1]. destruct tr; [exact I|].
    destruct (r_err BR b1); [exact I|]. destruct (r_read BR b1 1) as [x b2].
    destruct (negb (r_err BR b2)); [exact I|exact H].
  Qed.

  Ltac noq :=
    repeat first
      [ apply NoQ_fail
      | lazymatch goal with |- NoQ _ (bind _ _) => apply NoQ_bind; intros ? end
      | lazymatch goal with
        | |- NoQ _ (if ?c then _ else _) => destruct c
        | |- NoQ _ (match ?x with _ => _ end) => destruct x
        end
      | progress (cbv beta zeta) ].

  Definition Qd (s : hsps) : Prop := h_bdl s <= 48 /\ h_bdc s <= 48 /\ h_log2_poc s <= 52.

  Local Hint Resolve rel_hptl rel_hrps_loop rel_hvui : tie.
  Ltac tie_rd_side ::= first [ tie_width | (unfold u8 in *; lia) ].

  Ltac walk :=
    repeat first
      [ lazymatch goal with |- MRelQ _ (bind _ _) (bind _ _) => eapply MRelQ_bind; [solve [tie]|intros ?] end
      | lazymatch goal with
        | |- MRelQ _ (if ?c then _ else _) (if ?c then _ else _) => destruct c eqn:?
        | |- MRelQ _ (match ?x with _ => _ end) (match ?x with _ => _ end) => destruct x eqn:?
        end
      | (apply MRelQ_of; solve [tie])
      | progress (cbv beta zeta) ].

  Lemma relq_hparse_sps : MRelQ Qd (hparse_sps ER) (hparse_sps BR).
  Proof.
    unfold hparse_sps. walk.
    - (* lt_ref_pic_poc_lsb_sps: log2_max_pic_order_cnt_lsb bits *)
      match goal with |- MRelQ _ (bind _ _) (bind (if _ then bind _ (fun n0 => bind (rep_n _ (bind (rd BR (u8 (u8 ?l + 4))) _)) _) else _) _) =>
        eapply (MRelQ_bind_guard (u8 l <= 52)) end.
      + destruct (N.le_gt_cases (u8 a13) 52); [left; assumption|right; lia].
      + intros HG. tie.
      + intros x. walk.
        (* sps extensions: palette predictor initialisers of BitDepth bits *)
        match goal with |- MRelQ _ (bind (hparse_sps_ext ER _ ?bl ?bc) _) _ =>
          eapply (MRelQ_bind_guard (bl <= 48 /\ bc <= 48)) end.
        * destruct (N.le_gt_cases (u8 a11) 48); [|right; lia].
          destruct (N.le_gt_cases (u8 a12) 48); [left; split; assumption|right; lia].
        * intros [H1 H2]. apply rel_hsps_ext; assumption.
        * intros ext. walk.
        * intros HG. noq. apply NoQ_end. unfold Qd. cbn [h_bdl h_bdc h_log2_poc]. lia.
      + intros HG. noq. all: apply NoQ_end; unfold Qd; cbn [h_bdl h_bdc h_log2_poc]; lia.
  Qed.
End HevcSps.

Lemma tie_hevc_sps raw s :
  bytes_ok raw = true -> zrun_ok raw = true ->
  hparse_sps_br (escape raw) = Ok s -> hsps_depths_ok s = true ->
  hparse_sps_er (escape raw) = Ok s.
Proof.
  intros Hb Hz E Hd. unfold hparse_sps_er, hparse_sps_br, run in *.
  pose proof (relq_hparse_sps raw _ _ (Sim_init raw (bytes_ok_lt256 raw Hb) false Hz)) as H.
  destruct (hparse_sps BR (binit (escape raw))) as [[c b']| | |]; try discriminate.
  injection E as ->. unfold hsps_depths_ok in Hd.
  apply andb_true_iff in Hd. destruct Hd as [Hd H3]. apply andb_true_iff in Hd. destruct Hd as [H1 H2].
  destruct H as [s' ->]; [|reflexivity]. unfold Qd. repeat split; lia.
Qed.
