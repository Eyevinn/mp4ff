(* C15HevcConfRtProofs.v — DecodeHEVCDecConfRec (C16 model, read through the FixedSliceReader model)
   returns the record that Encode wrote: hevc_confrec_roundtrip, for every well-formed record
   (hevc_rec_wf); the records built by CreateHEVCDecConfRec are well formed. *)
From V.lib Require Import Base.
From V.c13 Require Import C13Spec C13Model.
From V.c15 Require Import C15Model C15Spec C15BitProofs C15AvcSpsProofs C15HevcModel C15HevcSpec
  C15HevcBitProofs C15HevcConfModel C15HevcConfSpec C15HevcConfProofs C15HevcConfEncProofs.
From V.c16 Require Import C16ConfRecModel.

(* ------------------------------------------------------------------ big-endian values *)
(* a number is its last byte and what stands before it *)
Lemma last_byte x : x = x / 256 * 256 + u8 x.
Proof. unfold u8. rewrite N.mul_comm. apply N.div_mod. discriminate. Qed.

Lemma be16_value x : x < 65536 -> u8 (x / 256) * 256 + u8 x = x.
Proof.
  intros H. rewrite (u8_id (x / 256)) by (apply N.div_lt_upper_bound; [discriminate | exact H]).
  symmetry. apply last_byte.
Qed.

Lemma be32_value x : x < 4294967296 ->
  ((u8 (x / 16777216) * 256 + u8 (x / 65536)) * 256 + u8 (x / 256)) * 256 + u8 x = x.
Proof.
  intros H. change 16777216 with (256 * 65536). change 65536 with (256 * 256).
  rewrite <- !N.div_div by discriminate.
  rewrite (u8_id (x / 256 / 256 / 256)) by (repeat (apply N.div_lt_upper_bound; [discriminate|]); exact H).
  rewrite <- !last_byte. reflexivity.
Qed.

(* the decoder joins the 48 constraint bits from a 32-bit and a 16-bit read *)
Lemma be48_value c : c < 281474976710656 ->
  N.lor (N.shiftl (((u8 (c / 1099511627776) * 256 + u8 (c / 4294967296)) * 256 + u8 (c / 16777216)) * 256
                   + u8 (c / 65536)) 16)
        (u8 (c / 256) * 256 + u8 c) = c.
Proof.
  intros Hc. rewrite shiftl_mul, lor_shifted_add by (change (2 ^ 16) with 65536; unfold u8; lia).
  change 1099511627776 with (256 * 4294967296). change 4294967296 with (256 * 16777216).
  change 16777216 with (256 * 65536). change (2 ^ 16) with (256 * 256). change 65536 with (256 * 256).
  rewrite <- !N.div_div by discriminate.
  rewrite (u8_id (c / 256 / 256 / 256 / 256 / 256))
    by (repeat (apply N.div_lt_upper_bound; [discriminate|]); exact Hc).
  rewrite N.mul_assoc, N.add_assoc, <- N.mul_add_distr_r, <- !last_byte. reflexivity.
Qed.

Local Open Scope Z_scope.

(* ------------------------------------------------------------------ well-formed records *)
Definition hevc_arr_wf (a : N * list (list N)) : bool := ((fst a <? 256)%N && nalus_fit (snd a))%bool.

Definition hevc_rec_wf (r : hevc_rec) : bool :=
  ((hr_version r =? 1)%N && (hr_profile_space r <? 4)%N && (hr_profile_idc r <? 32)%N
   && (hr_compat_flags r <? 4294967296)%N && (hr_constraint_flags r <? 281474976710656)%N
   && (hr_level_idc r <? 256)%N && (hr_min_spatial_seg r <? 4096)%N && (hr_parallelism r <? 4)%N
   && (hr_chroma r <? 4)%N && (hr_bdl r <? 8)%N && (hr_bdc r <? 8)%N
   && (hr_avg_frame_rate r <? 65536)%N && (hr_const_frame_rate r <? 4)%N
   && (hr_num_temporal_layers r <? 8)%N && (hr_temporal_id_nested r <? 2)%N
   && (hr_length_size_minus_one r =? 3)%N
   && (lenN (hr_arrays r) <? 256)%N && forallb hevc_arr_wf (hr_arrays r))%bool.

(* ------------------------------------------------------------------ the reader at a known position *)
(* `sfx` is what is left of `data` at byte position z *)
Definition at_pos (data : list N) (z : Z) (sfx : list N) : Prop :=
  exists pre, data = pre ++ sfx /\ Z.of_nat (length pre) = z.

Lemma at_lit data z sfx :
  skipn (Z.to_nat z) data = sfx -> 0 <= z -> z <= cr_len data -> at_pos data z sfx.
Proof.
  intros Hs H0 Hl. exists (firstn (Z.to_nat z) data). split.
  - rewrite <- Hs. symmetry. apply firstn_skipn.
  - unfold cr_len in Hl. rewrite firstn_length_le by lia. lia.
Qed.

Lemma at_pos_app data z x rest :
  at_pos data z (x ++ rest) -> at_pos data (z + Z.of_nat (length x)) rest.
Proof.
  intros (pre & -> & <-). exists (pre ++ x). split; [now rewrite app_assoc | rewrite app_length; lia].
Qed.

Lemma at_pos_len data z sfx : at_pos data z sfx -> z + Z.of_nat (length sfx) = cr_len data /\ 0 <= z.
Proof. intros (pre & -> & <-). unfold cr_len. rewrite app_length. lia. Qed.

Lemma at_pos_le data z sfx : at_pos data z sfx -> (length sfx <= length data)%nat.
Proof. intros (pre & -> & _). rewrite app_length. lia. Qed.

Lemma at_pos_idx data z b rest : at_pos data z (b :: rest) -> cr_idx data z = Ok b.
Proof.
  intros H. destruct (at_pos_len _ _ _ H) as [Hl H0]. cbn [length] in Hl.
  destruct H as (pre & -> & <-). unfold cr_idx.
  replace ((0 <=? Z.of_nat (length pre)) && (Z.of_nat (length pre) <? cr_len (pre ++ b :: rest)))%bool
    with true by lia.
  rewrite Nat2Z.id, nth_error_app2, Nat.sub_diag by lia. reflexivity.
Qed.

Lemma at_pos_slice data z x rest :
  at_pos data z (x ++ rest) -> cr_slice data z (z + Z.of_nat (length x)) = Ok x.
Proof.
  intros H. destruct (at_pos_len _ _ _ H) as [Hl H0]. rewrite app_length in Hl.
  destruct H as (pre & -> & <-). unfold cr_slice.
  replace ((0 <=? Z.of_nat (length pre))
           && (Z.of_nat (length pre) <=? Z.of_nat (length pre) + Z.of_nat (length x))
           && (Z.of_nat (length pre) + Z.of_nat (length x) <=? cr_len (pre ++ x ++ rest)))%bool
    with true by lia.
  rewrite Nat2Z.id, skipn_len_app.
  replace (Z.to_nat (Z.of_nat (length pre) + Z.of_nat (length x) - Z.of_nat (length pre))) with (length x) by lia.
  rewrite firstn_len_app. reflexivity.
Qed.

Lemma fsr_u8_at data z b rest :
  at_pos data z (b :: rest) -> fsr_read_u8 data (mkFsr false z) = Ok (b, mkFsr false (z + 1)).
Proof.
  intros H. destruct (at_pos_len _ _ _ H) as [Hl H0]. cbn [length] in Hl.
  unfold fsr_read_u8. cbn [fs_err fs_pos].
  replace (z >? cr_len data - 1) with false by lia.
  rewrite (at_pos_idx _ _ _ _ H). reflexivity.
Qed.

Lemma fsr_u16_at data z a b rest :
  at_pos data z (a :: b :: rest) ->
  fsr_read_u16 data (mkFsr false z) = Ok ((a * 256 + b)%N, mkFsr false (z + 2)).
Proof.
  intros H. destruct (at_pos_len _ _ _ H) as [Hl H0]. cbn [length] in Hl.
  unfold fsr_read_u16. cbn [fs_err fs_pos].
  replace (z >? cr_len data - 2) with false by lia.
  rewrite (at_pos_slice data z [a; b] rest H : cr_slice data z (z + 2) = _). reflexivity.
Qed.

Lemma fsr_u32_at data z a b c d rest :
  at_pos data z (a :: b :: c :: d :: rest) ->
  fsr_read_u32 data (mkFsr false z) = Ok ((((a * 256 + b) * 256 + c) * 256 + d)%N, mkFsr false (z + 4)).
Proof.
  intros H. destruct (at_pos_len _ _ _ H) as [Hl H0]. cbn [length] in Hl.
  unfold fsr_read_u32. cbn [fs_err fs_pos].
  replace (z >? cr_len data - 4) with false by lia.
  rewrite (at_pos_slice data z [a; b; c; d] rest H : cr_slice data z (z + 4) = _). reflexivity.
Qed.

Lemma fsr_bytes_at data z x rest :
  at_pos data z (x ++ rest) ->
  fsr_read_bytes data (mkFsr false z) (Z.of_nat (length x))
  = Ok (x, mkFsr false (z + Z.of_nat (length x))).
Proof.
  intros H. destruct (at_pos_len _ _ _ H) as [Hl H0]. rewrite app_length in Hl.
  unfold fsr_read_bytes. cbn [fs_err fs_pos].
  replace (Z.of_nat (length x) <? 0) with false by lia.
  replace (z >? cr_len data - Z.of_nat (length x)) with false by lia.
  rewrite (at_pos_slice data z x rest H). reflexivity.
Qed.

(* ------------------------------------------------------------------ the NAL unit loop *)
Definition enc_nalu (n : list N) : list N := be16 (u16 (lenN n)) ++ n.

Lemma enc_nalu_length l : (2 * length l <= length (flat_map enc_nalu l))%nat.
Proof.
  induction l as [|x t IH]; cbn [flat_map length]; [lia|].
  unfold enc_nalu at 1. rewrite !app_length. cbn [be16 length]. lia.
Qed.

Lemma nalu_loop_ok data : forall nalus fuel i n z acc t rest,
  (length nalus < fuel)%nat -> n = i + Z.of_nat (length nalus) ->
  forallb (fun x => (lenN x <? 65536)%N) nalus = true ->
  at_pos data z (flat_map enc_nalu nalus ++ rest) ->
  hevc_nalu_loop fuel data i n (mkFsr false z) acc t
  = Ok (false, mkFsr false (z + Z.of_nat (length (flat_map enc_nalu nalus))), rev nalus ++ acc,
        (t + lenN nalus)%N).
Proof.
  induction nalus as [|x xs IH]; intros fuel i n z acc t rest Hf Hn Hw Hp;
    (destruct fuel as [|f]; [cbn [length] in Hf; lia|]); cbn [hevc_nalu_loop].
  - cbn [length] in Hn. replace (i <? n) with false by lia.
    cbn [flat_map length rev app]. rewrite Z.add_0_r, lenN_nil, N.add_0_r. reflexivity.
  - cbn [length] in Hn, Hf. replace (i <? n) with true by lia.
    cbn [forallb] in Hw. apply andb_prop in Hw. destruct Hw as [Hx Hw].
    cbn [flat_map] in Hp. unfold enc_nalu at 1 in Hp. unfold be16 in Hp.
    rewrite <- !app_assoc in Hp. cbn [app] in Hp.
    rewrite (fsr_u16_at _ _ _ _ _ Hp). cbn [rbind].
    rewrite u16_id, be16_value by lia.
    apply (at_pos_app data z [_; _]) in Hp. cbn [length] in Hp. change (Z.of_nat 2) with 2 in Hp.
    unfold lenN at 1. rewrite nat_N_Z.
    rewrite (fsr_bytes_at _ _ _ _ Hp). cbn [rbind fs_err].
    apply at_pos_app in Hp.
    rewrite (IH f (i + 1) n _ (x :: acc) (t + 1)%N rest) by (try assumption; lia).
    cbn [flat_map rev]. unfold enc_nalu at 2. rewrite !app_length, <- app_assoc. cbn [be16 length app].
    rewrite lenN_cons.
    match goal with
    | |- Ok (_, mkFsr false ?p, _, ?t) = Ok (_, mkFsr false ?p', _, ?t') =>
        replace p with p' by lia; replace t with t' by lia; reflexivity
    end.
Qed.

(* ------------------------------------------------------------------ the array loop *)
Lemma hconf_encode_array_length ct nalus :
  length (hconf_encode_array (ct, nalus)) = (3 + length (flat_map enc_nalu nalus))%nat.
Proof. reflexivity. Qed.

Lemma array_loop_ok data : forall arrs fuel j n z acc t rest,
  (length arrs < fuel)%nat -> n = j + Z.of_nat (length arrs) ->
  forallb hevc_arr_wf arrs = true ->
  at_pos data z (flat_map hconf_encode_array arrs ++ rest) ->
  exists t', hevc_array_loop fuel data j n (mkFsr false z) acc t
  = Ok (false, mkFsr false (z + Z.of_nat (length (flat_map hconf_encode_array arrs))), rev arrs ++ acc,
        t', []).
Proof.
  induction arrs as [|a arrs IH]; intros fuel j n z acc t rest Hf Hn Hw Hp;
    (destruct fuel as [|f]; [cbn [length] in Hf; lia|]); cbn [hevc_array_loop].
  - cbn [length] in Hn. replace (j <? n) with false by lia. exists t.
    cbn [flat_map length rev app]. rewrite Z.add_0_r. reflexivity.
  - cbn [length] in Hn, Hf. replace (j <? n) with true by lia.
    cbn [forallb] in Hw. apply andb_prop in Hw. destruct Hw as [Ha Hw].
    destruct a as [ct nalus]. unfold hevc_arr_wf, nalus_fit in Ha. cbn [fst snd] in Ha.
    apply andb_prop in Ha. destruct Ha as [Hct Ha]. apply andb_prop in Ha. destruct Ha as [Hcnt Ha].
    assert (Hlens : forallb (fun x => (lenN x <? 65536)%N) nalus = true).
    { rewrite forallb_forall in *. intros x Hx. specialize (Ha x Hx). apply andb_prop in Ha. tauto. }
    cbn [flat_map] in Hp. unfold hconf_encode_array at 1 in Hp. cbn [fst snd] in Hp.
    fold enc_nalu in Hp. change (fun n0 : list N => be16 (u16 (lenN n0)) ++ n0) with enc_nalu in Hp.
    unfold be16 in Hp. rewrite <- !app_assoc in Hp. cbn [app] in Hp.
    rewrite (fsr_u8_at _ _ _ _ Hp). cbn [rbind].
    apply (at_pos_app data z [_]) in Hp. cbn [length] in Hp. change (Z.of_nat 1) with 1 in Hp.
    rewrite (fsr_u16_at _ _ _ _ _ Hp). cbn [rbind].
    apply (at_pos_app data (z + 1) [_; _]) in Hp. cbn [length] in Hp. change (Z.of_nat 2) with 2 in Hp.
    rewrite u16_id, be16_value by lia.
    assert (Hfuel : (length nalus < cr_fuel data)%nat).
    { pose proof (at_pos_le _ _ _ Hp) as Hl. rewrite app_length in Hl.
      pose proof (enc_nalu_length nalus). unfold cr_fuel. lia. }
    rewrite (nalu_loop_ok data nalus (cr_fuel data) 0 _ _ [] (t + 1)%N _ Hfuel)
      by (try eassumption; unfold lenN; rewrite nat_N_Z; lia).
    cbn [rbind]. apply at_pos_app in Hp.
    destruct (IH f (j + 1) n _ ((ct, rev (rev nalus ++ [])) :: acc) (t + 1 + lenN nalus)%N rest
                 ltac:(lia) ltac:(lia) Hw Hp) as [t' Ht'].
    exists t'. replace (u8 ct) with ct by (symmetry; apply N.mod_small; lia). rewrite Ht'.
    rewrite app_nil_r, rev_involutive.
    cbn [flat_map rev]. rewrite app_length, hconf_encode_array_length, <- app_assoc. cbn [app].
    match goal with
    | |- Ok (_, mkFsr false ?p, _, _, _) = Ok (_, mkFsr false ?p', _, _, _) =>
        replace p with p' by lia; reflexivity
    end.
Qed.

(* ------------------------------------------------------------------ the fixed 23 bytes *)
Ltac at_lit_tac := apply at_lit; [reflexivity | lia | unfold cr_len; cbn [length]; lia].

Ltac rd8 :=
  match goal with
  | |- context [fsr_read_u8 ?d (mkFsr false ?z)] =>
      let n := eval compute in (Z.to_nat z) in
      let sfx := eval cbn [skipn] in (skipn n d) in
      lazymatch sfx with
      | ?b :: ?rest => rewrite (fsr_u8_at d z b rest) by at_lit_tac
      end
  end; cbn [rbind].

Ltac rd16 :=
  match goal with
  | |- context [fsr_read_u16 ?d (mkFsr false ?z)] =>
      let n := eval compute in (Z.to_nat z) in
      let sfx := eval cbn [skipn] in (skipn n d) in
      lazymatch sfx with
      | ?a :: ?b :: ?rest => rewrite (fsr_u16_at d z a b rest) by at_lit_tac
      end
  end; cbn [rbind].

Ltac rd32 :=
  match goal with
  | |- context [fsr_read_u32 ?d (mkFsr false ?z)] =>
      let n := eval compute in (Z.to_nat z) in
      let sfx := eval cbn [skipn] in (skipn n d) in
      lazymatch sfx with
      | ?a :: ?b :: ?c :: ?e :: ?rest => rewrite (fsr_u32_at d z a b c e rest) by at_lit_tac
      end
  end; cbn [rbind].

Lemma hevc_decode_full_header b0 b1 b2 b3 b4 b5 b6 b7 b8 b9 b10 b11 b12 b13 b14 b15 b16 b17 b18 b19 b20
      b21 b22 tail :
  b0 = 1%N -> N.land b21 3 = 3%N ->
  hevc_decode_full (b0 :: b1 :: b2 :: b3 :: b4 :: b5 :: b6 :: b7 :: b8 :: b9 :: b10 :: b11 :: b12 :: b13
                    :: b14 :: b15 :: b16 :: b17 :: b18 :: b19 :: b20 :: b21 :: b22 :: tail)
  = (do r <- hevc_array_loop hevc_array_fuel
               (b0 :: b1 :: b2 :: b3 :: b4 :: b5 :: b6 :: b7 :: b8 :: b9 :: b10 :: b11 :: b12 :: b13
                :: b14 :: b15 :: b16 :: b17 :: b18 :: b19 :: b20 :: b21 :: b22 :: tail)
               0 (Z.of_N (u8 b22)) (mkFsr false 23) [] 0%N;
     let '(early, s, arrs, t, dropped) := r in
     Ok (mkHevcRec b0 (N.land (N.shiftr b1 6) 3) (N.land (N.shiftr b1 5) 1 =? 1)%N (N.land b1 31)
                   (((b2 * 256 + b3) * 256 + b4) * 256 + b5)%N
                   (N.lor (N.shiftl (((b6 * 256 + b7) * 256 + b8) * 256 + b9)%N 16) (b10 * 256 + b11)%N)
                   b12 (N.land (b13 * 256 + b14)%N 4095) (N.land b15 3) (N.land b16 3) (N.land b17 7)
                   (N.land b18 7) (b19 * 256 + b20)%N
                   (N.land (N.shiftr b21 6) 3) (N.land (N.shiftr b21 3) 7) (N.land (N.shiftr b21 2) 1)
                   (N.land b21 3) (rev arrs),
         fs_err s, t, dropped)).
Proof.
  intros H0 H21. unfold hevc_decode_full, fsr_init.
  rd8. rewrite H0 at 1. change (negb (1 =? 1)%N) with false. cbv iota.
  rd8. rd32. rd32. rd16. rd8. rd16. rd8. rd8. rd8. rd8. rd16. rd8.
  rewrite H21. change (negb (3 =? 3)%N) with false. cbv iota.
  rd8.
  reflexivity.
Qed.

(* ------------------------------------------------------------------ masks *)
Lemma land_1 x : N.land x 1 = (x mod 2)%N.
Proof. change 1%N with (N.ones 1). rewrite N.land_ones. reflexivity. Qed.
Lemma land_3 x : N.land x 3 = (x mod 4)%N.
Proof. change 3%N with (N.ones 2). rewrite N.land_ones. reflexivity. Qed.
Lemma land_7 x : N.land x 7 = (x mod 8)%N.
Proof. change 7%N with (N.ones 3). rewrite N.land_ones. reflexivity. Qed.
Lemma land_31 x : N.land x 31 = (x mod 32)%N.
Proof. change 31%N with (N.ones 5). rewrite N.land_ones. reflexivity. Qed.
Lemma land_4095 x : N.land x 4095 = (x mod 4096)%N.
Proof. change 4095%N with (N.ones 12). rewrite N.land_ones. reflexivity. Qed.

(* what the decoder's masks and shifts take out of the bytes that Encode packs (byte1_value, byte21_value,
   lor_252, lor_248, lor_61440) *)
Local Open Scope N_scope.


Lemma byte1_fields sp (tier : bool) idc : sp < 4 -> idc < 32 ->
  let b := sp * 64 + b2n tier * 32 + idc in
  N.land (N.shiftr b 6) 3 = sp /\ (N.land (N.shiftr b 5) 1 =? 1) = tier /\ N.land b 31 = idc.
Proof.
  intros Hs Hi. cbv zeta. rewrite !shiftr_div, land_3, land_1, land_31.
  change (2 ^ 6) with 64. change (2 ^ 5) with 32.
  destruct tier; cbn [b2n]; (split; [lia | split; [|lia]]); [apply N.eqb_eq | apply N.eqb_neq]; lia.
Qed.

Lemma byte21_fields cfr ntl tin : cfr < 4 -> ntl < 8 -> tin < 2 ->
  let b := cfr * 64 + ntl * 8 + tin * 4 + 3 in
  N.land (N.shiftr b 6) 3 = cfr /\ N.land (N.shiftr b 3) 7 = ntl /\ N.land (N.shiftr b 2) 1 = tin
  /\ N.land b 3 = 3.
Proof.
  intros Hc Hn Ht. cbv zeta. rewrite !shiftr_div, !land_3, land_7, land_1.
  change (2 ^ 6) with 64. change (2 ^ 3) with 8. change (2 ^ 2) with 4. repeat split; lia.
Qed.

Lemma land_252 x : x < 4 -> N.land (252 + x) 3 = x.
Proof. intros H. apply (land_low 252 x 2); [exact H | reflexivity]. Qed.

Lemma land_248 x : x < 8 -> N.land (248 + x) 7 = x.
Proof. intros H. apply (land_low 248 x 3); [exact H | reflexivity]. Qed.

Lemma land_61440 x : x < 4096 -> N.land (61440 + x) 4095 = x.
Proof. intros H. apply (land_low 61440 x 12); [exact H | reflexivity]. Qed.

Local Open Scope Z_scope.

(* ------------------------------------------------------------------ decode (encode r) = r *)
Lemma hevc_confrec_roundtrip r :
  hevc_rec_wf r = true -> exists t, hevc_decode_dec_conf_rec (hconf_encode r) = Ok (r, t).
Proof.
  destruct r as [ver sp tier idc compat cons level mss par chroma bdl bdc afr cfr ntl tin lsm arrays].
  unfold hevc_rec_wf.
  cbn [hr_version hr_profile_space hr_tier hr_profile_idc hr_compat_flags hr_constraint_flags
       hr_level_idc hr_min_spatial_seg hr_parallelism hr_chroma hr_bdl hr_bdc hr_avg_frame_rate
       hr_const_frame_rate hr_num_temporal_layers hr_temporal_id_nested hr_length_size_minus_one
       hr_arrays].
  intros Hw. split_all.
  repeat match goal with H : (_ =? _)%N = true |- _ => apply N.eqb_eq in H end. subst ver lsm.
  repeat match goal with H : (_ <? _)%N = true |- _ => apply N.ltb_lt in H end.
  unfold hevc_decode_dec_conf_rec, hconf_encode.
  cbn [hr_version hr_profile_space hr_tier hr_profile_idc hr_compat_flags hr_constraint_flags
       hr_level_idc hr_min_spatial_seg hr_parallelism hr_chroma hr_bdl hr_bdc hr_avg_frame_rate
       hr_const_frame_rate hr_num_temporal_layers hr_temporal_id_nested hr_length_size_minus_one
       hr_arrays].
  rewrite byte1_value, byte21_value, lor_61440, !lor_252, !lor_248 by assumption.
  rewrite be48_bytes. unfold be32, be16. cbn [app].
  rewrite hevc_decode_full_header by (try reflexivity; rewrite land_3; lia).
  match goal with
  | |- context [hevc_array_loop ?f ?d ?j ?n ?s ?acc ?t] =>
      destruct (array_loop_ok d arrays f j n 23 acc t []) as [t' Ht']
  end.
  - unfold hevc_array_fuel. unfold lenN in *. lia.
  - unfold u8, lenN in *. lia.
  - assumption.
  - rewrite app_nil_r. at_lit_tac.
  - rewrite Ht'. cbn [rbind fs_err]. exists t'. rewrite app_nil_r, rev_involutive.
    apply (f_equal (fun x => Ok (x, t'))).
    destruct (byte1_fields sp tier idc) as (-> & -> & ->); [assumption..|].
    destruct (byte21_fields cfr ntl tin) as (-> & -> & -> & ->); [assumption..|].
    rewrite (u16_id afr), be32_value, be48_value, !be16_value, land_61440, !land_252, !land_248, !u8_id by lia.
    reflexivity.
Qed.

(* ------------------------------------------------------------------ the records of CreateHEVCDecConfRec are well formed *)
Lemma expected_hconf_wf v vps sps pps vc sc pc inc :
  hsps_valid v = true -> hconf_depths_fit v = true ->
  nalus_fit vps = true -> nalus_fit sps = true -> nalus_fit pps = true ->
  hevc_rec_wf (expected_hconf v vps sps pps vc sc pc inc) = true.
Proof.
  intros Hv Hd Hvps Hsps Hpps.
  destruct (hsps_valid_conf v Hv) as (Hs & Hi & Hc & H43 & Hl & Hch). cbv zeta in *.
  destruct (constraint48_bits _ H43) as [_ H48]. change (2 ^ 48)%N with 281474976710656%N in H48.
  unfold hconf_depths_fit in Hd. apply andb_prop in Hd. destruct Hd as [Hdl Hdc].
  unfold hevc_rec_wf, expected_hconf. cbv zeta.
  cbn [hr_version hr_profile_space hr_tier hr_profile_idc hr_compat_flags hr_constraint_flags
       hr_level_idc hr_min_spatial_seg hr_parallelism hr_chroma hr_bdl hr_bdc hr_avg_frame_rate
       hr_const_frame_rate hr_num_temporal_layers hr_temporal_id_nested hr_length_size_minus_one
       hr_arrays].
  repeat (apply andb_true_intro; split); try reflexivity; try lia.
  - destruct inc; reflexivity.
  - destruct inc; [|reflexivity]. unfold hevc_arr_wf. cbn [forallb fst snd].
    rewrite Hvps, Hsps, Hpps. destruct vc, sc, pc; reflexivity.
Qed.

Lemma hevc_confrec_roundtrip_created v vps sps pps vc sc pc inc :
  hsps_valid v = true -> hconf_depths_fit v = true ->
  nalus_fit vps = true -> nalus_fit sps = true -> nalus_fit pps = true ->
  exists t, hevc_decode_dec_conf_rec (spec_hvcc v vps sps pps vc sc pc inc)
            = Ok (expected_hconf v vps sps pps vc sc pc inc, t).
Proof.
  intros Hv Hd Hvps Hsps Hpps. rewrite <- hevc_confrec_encode_eq by assumption.
  apply hevc_confrec_roundtrip, expected_hconf_wf; assumption.
Qed.
