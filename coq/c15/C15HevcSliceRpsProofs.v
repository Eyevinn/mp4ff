(* C15HevcSliceRpsProofs.v — the reference-picture part of the HEVC slice segment header:
   slice_pic_order_cnt_lsb, short-term RPS (coded in the slice / selected from the SPS / inferred),
   the long-term entries loop with the NumPicTotalCurr accumulator, slice_temporal_mvp_enabled_flag. *)
From V.lib Require Import Base.
From V.c13 Require Import C13Spec C13Model.
From V.c15 Require Import C15Model C15Spec C15BitProofs C15AvcSpsProofs C15AvcPpsProofs
  C15HevcModel C15HevcSpec C15HevcBitProofs C15HevcSpsRpsProofs C15HevcPpsProofs C15HevcSliceBaseProofs.

Section NoDivision.
(* nothing in this section divides: lia without its preprocessing of / and mod, which visits every
   hypothesis at every call (dlia, C15HevcBitProofs, is lia with that step) *)
Ltac Zify.zify_convert_to_euclidean_division_equations_flag ::= constr:(false).

Local Notation "x <- m ;; k" := (bind m (fun x => k))
  (at level 61, m at next level, right associativity).

(* ------------------------------------------------------------------ the sets of the expected SPS *)
Lemma length_derive_all_from : forall l prev idx,
  length (derive_all_from prev idx l) = (length prev + length l)%nat.
Proof.
  induction l as [|r t IH]; intros prev idx; cbn [derive_all_from length]; [lia|].
  rewrite IH, app_length. cbn [length]. lia.
Qed.

Lemma length_sps_derived sp : length (hs_sps_derived sp) = length (sx_st_ref_pic_sets sp).
Proof. unfold hs_sps_derived, derive_all. rewrite length_derive_all_from. reflexivity. Qed.

Lemma rps_rel_from num : forall l prev idx acc,
  Forall2 rps_rel acc prev -> lenN prev = idx -> idx + lenN l <= 64 ->
  hrps_list_valid_from prev idx num l = true ->
  Forall2 rps_rel (acc ++ exp_from prev idx l) (derive_all_from prev idx l).
Proof.
  induction l as [|r t IH]; intros prev idx acc Hrel Hlen Hb Hv;
    cbn [exp_from derive_all_from hrps_list_valid_from] in *.
  - rewrite app_nil_r. exact Hrel.
  - apply andb_prop in Hv. destruct Hv as [Hv1 Hv2]. rewrite lenN_cons in Hb. cbv zeta.
    destruct (parses_st_rps [] idx num acc prev r 0 Hrel Hlen ltac:(lia) Hv1) as [_ R].
    set (d := derive_one prev idx r) in *.
    replace (acc ++ expected_hrps d r :: exp_from (prev ++ [d]) (idx + 1) t)
      with ((acc ++ [expected_hrps d r]) ++ exp_from (prev ++ [d]) (idx + 1) t)
      by (rewrite <- app_assoc; reflexivity).
    apply IH.
    + apply Forall2_app; [exact Hrel | constructor; [exact R | constructor]].
    + rewrite lenN_app, lenN_cons, lenN_nil. lia.
    + lia.
    + exact Hv2.
Qed.

Lemma sps_sets_rel sp : hsps_valid sp = true ->
  Forall2 rps_rel (h_st_rps (expected_hsps sp)) (hs_sps_derived sp) /\ hs_num_st sp <= 64.
Proof.
  intros Hv. unfold hsps_valid in Hv. cbv zeta in Hv. split_all.
  split; [|unfold hs_num_st; lia].
  rewrite esp_st_rps. unfold hs_sps_derived, derive_all.
  pose proof (exp_from_combine (sx_st_ref_pic_sets sp) [] [] 0 eq_refl) as E.
  cbn [app combine map] in E. unfold hs_sps_derived, derive_all in E |- *. rewrite E.
  apply (rps_rel_from (lenN (sx_st_ref_pic_sets sp)) (sx_st_ref_pic_sets sp) [] 0 []);
    [constructor | reflexivity | lia | assumption].
Qed.

Lemma nth_error_combine {A B} : forall (a : list A) (b : list B) i,
  nth_error (combine a b) i =
  match nth_error a i, nth_error b i with Some x, Some y => Some (x, y) | _, _ => None end.
Proof.
  induction a as [|x a IH]; intros [|y b] [|i]; cbn [combine nth_error]; try reflexivity.
  - destruct (nth_error a i); reflexivity.
  - apply IH.
Qed.

(* what countInUsePics sees: the used entries of the set in force (7-55) *)
Lemma map_snd_cumulate sg : forall l a, map snd (cumulate sg a l) = map snd l.
Proof.
  induction l as [|[m used] t IH]; intros a; cbn [cumulate map]; [reflexivity|].
  cbv zeta. cbn [map snd]. now rewrite IH.
Qed.

(* explicit sets: the derived set carries the coded used flags *)
Definition rps_used_rel (p : rps_derived * hrps_syntax) : Prop :=
  match snd p with
  | RpsExplicit neg pos => d_num_used (fst p) = countb (map snd neg) + countb (map snd pos)
  | _ => True
  end.

Lemma rps_used_rel_one prev idx r : rps_used_rel (derive_one prev idx r, r).
Proof.
  unfold rps_used_rel. destruct r as [neg ps|]; cbn [fst snd derive_one]; [|exact I].
  unfold d_num_used. cbn [d_s0 d_s1]. rewrite !map_snd_cumulate. reflexivity.
Qed.

Lemma rps_used_rel_from : forall l prev done idx, length prev = length done ->
  Forall rps_used_rel (combine prev done) ->
  Forall rps_used_rel (combine (derive_all_from prev idx l) (done ++ l)).
Proof.
  induction l as [|r t IH]; intros prev done idx Hl Hf; cbn [derive_all_from].
  - rewrite app_nil_r. exact Hf.
  - replace (done ++ r :: t) with ((done ++ [r]) ++ t) by (rewrite <- app_assoc; reflexivity).
    apply IH; [rewrite !app_length; cbn [length]; lia|].
    rewrite combine_app_eq by exact Hl. apply Forall_app. split; [exact Hf|].
    cbn [combine]. constructor; [apply rps_used_rel_one | constructor].
Qed.

Lemma sps_used_rel sp : Forall rps_used_rel (combine (hs_sps_derived sp) (sx_st_ref_pic_sets sp)).
Proof.
  unfold hs_sps_derived, derive_all.
  apply (rps_used_rel_from (sx_st_ref_pic_sets sp) [] [] 0 eq_refl). constructor.
Qed.

Lemma count_in_use_expected d r : rps_used_rel (d, r) -> d_num_used d < 256 ->
  hcount_in_use (expected_hrps d r) = d_num_used d.
Proof.
  unfold rps_used_rel, hcount_in_use. cbn [fst snd].
  destruct r as [neg ps|]; cbn [expected_hrps rps_u0 rps_u1 rps_nused]; intros H Hb.
  - rewrite <- H, N.add_0_r. unfold u8. rewrite N.mod_mod by discriminate.
    apply N.mod_small. exact Hb.
  - change (u8 (countb [] + countb [])) with 0. rewrite N.add_0_l. apply u8_id. exact Hb.
Qed.

Lemma count_in_use_curr sp pp v : d_num_used (hs_curr_rps sp pp v) < 256 ->
  hcount_in_use (expected_hslice_rps sp pp v) = d_num_used (hs_curr_rps sp pp v).
Proof.
  unfold expected_hslice_rps, hs_curr_rps.
  destruct (hs_nidr pp v); [|reflexivity].
  destruct (sx_short_term_ref_pic_set_sps_flag v).
  - intros Hb.
    destruct (nth_error (combine (hs_sps_derived sp) (sx_st_ref_pic_sets sp)) (N.to_nat (hs_st_idx sp pp v)))
      as [[d r]|] eqn:E.
    + pose proof (nth_error_In _ _ E) as Hin.
      pose proof (proj1 (Forall_forall _ _) (sps_used_rel sp) _ Hin) as Hrel.
      rewrite nth_error_combine in E.
      destruct (nth_error (hs_sps_derived sp) (N.to_nat (hs_st_idx sp pp v))) as [d'|] eqn:E1; [|discriminate].
      destruct (nth_error (sx_st_ref_pic_sets sp) (N.to_nat (hs_st_idx sp pp v))) as [r'|]; [|discriminate].
      injection E as -> ->.
      rewrite (nth_error_nth _ _ (mkRpsD [] []) E1) in Hb |- *.
      cbn [fst snd]. apply count_in_use_expected; assumption.
    + apply nth_error_None in E. rewrite combine_length, length_sps_derived, Nat.min_id in E.
      rewrite nth_overflow by (rewrite length_sps_derived; exact E). reflexivity.
  - intros Hb. apply count_in_use_expected; [apply rps_used_rel_one | exact Hb].
Qed.

(* ------------------------------------------------------------------ short-term RPS in the slice header *)
Definition sl_rp (hs : hsps) (stf : bool) :=
  (if negb stf then
     r <- hparse_st_rps BR (h_num_st_rps hs) (h_num_st_rps hs) (h_st_rps hs) ;;
     e <- get_err BR ;;
     if e then fail else ret (r, 0)
   else if 1 <? h_num_st_rps hs then
     ix <- rd BR (ceil_log2 (h_num_st_rps hs)) ;;
     match nth_error (h_st_rps hs) (N.to_nat (u8 ix)) with
     | None => fail
     | Some r => ret (r, u8 ix)
     end
   else
     match nth_error (h_st_rps hs) 0 with
     | None => ret (hrps_zero, 0)
     | Some r => ret (r, 0)
     end).

Lemma parses_sl_rp raw sp pp v pos :
  hsps_valid sp = true -> hslice_valid sp pp v = true -> hs_nidr pp v = true ->
  parses raw (sl_rp (expected_hsps sp) (sx_short_term_ref_pic_set_sps_flag v)) pos
    (if sx_short_term_ref_pic_set_sps_flag v
     then opt_bits (1 <? hs_num_st sp) (u (N.log2_up (hs_num_st sp)) (sx_short_term_ref_pic_set_idx v))
     else ser_hrps (hs_num_st sp) (hs_num_st sp) (sx_slice_st_rps v))
    (expected_hslice_rps sp pp v, hs_st_idx sp pp v).
Proof.
  intros Hs Hv Hn.
  destruct (sps_sets_rel sp Hs) as [Hrel H64].
  unfold hslice_valid in Hv. split_all.
  unfold sl_rp, expected_hslice_rps, hs_st_idx, hs_st_idx_coded, hs_st_coded in *.
  rewrite Hn in *. cbn [andb] in *.
  rewrite esp_num_st_rps.
  destruct (sx_short_term_ref_pic_set_sps_flag v) eqn:Hf; cbn [negb andb] in *.
  - split_all. rewrite esp_st_rps.
    destruct (1 <? hs_num_st sp) eqn:H1; cbn [opt_bits].
    + rewrite ceil_log2_eq by (change (2 ^ 32) with 4294967296; lia).
      pose proof (log2_up_bound (hs_num_st sp) ltac:(lia)) as Hlb.
      plast ltac:(apply parses_rd; lia).
      rewrite u8_id by lia.
      rewrite nth_error_map.
      destruct (nth_error (combine (hs_sps_derived sp) (sx_st_ref_pic_sets sp))
                          (N.to_nat (sx_short_term_ref_pic_set_idx v))) as [p|] eqn:E; cbn [option_map].
      * apply parses_ret.
      * exfalso. apply nth_error_None in E. rewrite combine_length, length_sps_derived in E.
        unfold hs_num_st, lenN in *. lia.
    + change 0%nat with (N.to_nat 0). rewrite nth_error_map.
      destruct (nth_error (combine (hs_sps_derived sp) (sx_st_ref_pic_sets sp)) (N.to_nat 0)) as [p|];
        cbn [option_map]; apply parses_ret.
  - destruct (parses_st_rps raw (hs_num_st sp) (hs_num_st sp) (h_st_rps (expected_hsps sp))
                (hs_sps_derived sp) (sx_slice_st_rps v) pos Hrel) as [P _];
      [unfold hs_num_st, lenN; rewrite length_sps_derived; reflexivity | exact H64 | assumption |].
    plast ltac:(exact P).
    pread.
    apply parses_ret_eq. unfold hs_curr_rps. rewrite Hn, Hf. reflexivity.
Qed.

(* ------------------------------------------------------------------ long-term entries *)
Lemma lt_acc_cons a b l : lt_acc a (b :: l) = lt_acc (if b then u8 (a + 1) else a) l.
Proof. reflexivity. Qed.

Definition lt_enc_pics (sp : hsps_syntax) (e : N * bool * bool * N) : list bool :=
  let '(poc, used, msb, cyc) := e in
  u (hs_poc_bits sp) poc ++ fl used ++ fl msb ++ opt_bits msb (ue_bits cyc).
Definition lt_val_pics (e : N * bool * bool * N) : hlt :=
  let '(poc, used, msb, cyc) := e in mkHLt poc used msb (if msb then cyc else 0).
Definition lt_enc_sps (sp : hsps_syntax) (e : N * bool * N) : list bool :=
  let '(ix, msb, cyc) := e in
  opt_bits (1 <? hs_num_lt_sps_in_sps sp) (u (hs_lt_idx_bits sp) ix) ++ fl msb ++ opt_bits msb (ue_bits cyc).
Definition lt_val_sps (sp : hsps_syntax) (e : N * bool * N) : hlt :=
  let '(ix, msb, cyc) := e in
  mkHLt (fst (hs_sps_lt sp ix)) (snd (hs_sps_lt sp ix)) msb (if msb then cyc else 0).

Lemma hlt_loop_pics raw sp nls : forall (l2 : list (N * bool * bool * N)) i acc npt pos,
  nls <= i -> sx_log2_max_pic_order_cnt_lsb_minus4 sp <= 12 ->
  forallb (fun e => let '(poc, used, msb, cyc) := e in (poc <? 2 ^ hs_poc_bits sp) && ue_ok cyc) l2 = true ->
  parses raw (hlt_loop BR (length l2) i nls (expected_hsps sp) acc npt) pos
    (flat_map (lt_enc_pics sp) l2)
    (acc ++ map lt_val_pics l2, lt_acc npt (map (fun e => snd (fst (fst e))) l2)).
Proof.
  induction l2 as [|e t IH]; intros i acc npt pos Hi Hp Hv; cbn [length hlt_loop flat_map map].
  - apply parses_ret_eq. rewrite app_nil_r. reflexivity.
  - destruct e as [[[poc used] msb] cyc]. cbn [forallb] in Hv. split_all.
    replace (i <? nls) with false by lia. cbv iota.
    rewrite esp_log2_poc. rewrite (u8_id (_ + 4)) by lia.
    unfold lt_enc_pics at 1. fold (hs_poc_bits sp).
    assert (Hpb : 2 ^ hs_poc_bits sp <= 2 ^ 16)
      by (apply N.pow_le_mono_r; [lia | unfold hs_poc_bits; lia]).
    change (2 ^ 16) with 65536 in Hpb.
    rewrite <- !app_assoc. rewrite (app_assoc (u _ poc) (fl used)).
    eapply parses_bind.
    { pbind ltac:(apply parses_rd; lia). preads. }
    cbv beta zeta. cbn [lt_used lt_poc_lsb].
    preads.
    rewrite lt_acc_cons. cbn [fst snd lt_val_pics].
    rewrite (u16_id poc) by lia.
    replace (acc ++ mkHLt poc used msb (if msb then cyc else 0) :: map lt_val_pics t)
      with ((acc ++ [mkHLt poc used msb (if msb then cyc else 0)]) ++ map lt_val_pics t)
      by (rewrite <- app_assoc; reflexivity).
    apply IH; [lia | exact Hp | assumption].
Qed.

Lemma hlt_nth sp ix : ix < hs_num_lt_sps_in_sps sp ->
  nth_error (h_lt (expected_hsps sp)) (N.to_nat ix)
  = Some (mkHLt (fst (hs_sps_lt sp ix)) (snd (hs_sps_lt sp ix)) false 0).
Proof.
  intros H. rewrite esp_lt. unfold hs_num_lt_sps_in_sps, hs_sps_lt in *.
  destruct (sx_long_term_ref_pics_present_flag sp); [|lia].
  rewrite nth_error_map. rewrite (nth_error_nth' _ (0, false)) by (unfold lenN in H; lia).
  reflexivity.
Qed.

Lemma hlt_loop_sps raw sp nls : forall (l1 : list (N * bool * N)) (l2 : list (N * bool * bool * N)) i acc npt pos,
  nls = i + lenN l1 -> sx_log2_max_pic_order_cnt_lsb_minus4 sp <= 12 ->
  hs_num_lt_sps_in_sps sp <= 32 ->
  forallb (fun e => let '(ix, msb, cyc) := e in (ix <? hs_num_lt_sps_in_sps sp) && ue_ok cyc) l1 = true ->
  forallb (fun e => let '(poc, used, msb, cyc) := e in (poc <? 2 ^ hs_poc_bits sp) && ue_ok cyc) l2 = true ->
  parses raw (hlt_loop BR (length l1 + length l2) i nls (expected_hsps sp) acc npt) pos
    (flat_map (lt_enc_sps sp) l1 ++ flat_map (lt_enc_pics sp) l2)
    (acc ++ map (lt_val_sps sp) l1 ++ map lt_val_pics l2,
     lt_acc npt (map (fun e => snd (hs_sps_lt sp (fst (fst e)))) l1 ++ map (fun e => snd (fst (fst e))) l2)).
Proof.
  induction l1 as [|e t IH]; intros l2 i acc npt pos Hi Hp H32 Hv1 Hv2; cbn [length flat_map map app Nat.add].
  - apply hlt_loop_pics; [rewrite lenN_nil in Hi; lia | exact Hp | exact Hv2].
  - cbn [hlt_loop]. destruct e as [[ix msb] cyc]. cbn [forallb] in Hv1. split_all.
    rewrite lenN_cons in Hi.
    replace (i <? nls) with true by lia. cbv iota.
    rewrite esp_num_lt.
    unfold lt_enc_sps at 1. rewrite <- !app_assoc.
    assert (Hix : ix < hs_num_lt_sps_in_sps sp) by lia.
    eapply parses_bind.
    { instantiate (1 := mkHLt (fst (hs_sps_lt sp ix)) (snd (hs_sps_lt sp ix)) false 0).
      destruct (1 <? hs_num_lt_sps_in_sps sp) eqn:H1; cbn [opt_bits].
      - rewrite ceil_log2_eq by (change (2 ^ 32) with 4294967296; lia).
        pose proof (log2_up_bound (hs_num_lt_sps_in_sps sp) ltac:(lia)) as Hlb.
        plast ltac:(apply parses_rd; unfold hs_lt_idx_bits; lia).
        rewrite hlt_nth by exact Hix. apply parses_ret.
      - assert (ix = 0) by lia. subst ix.
        change 0%nat with (N.to_nat 0). rewrite hlt_nth by exact Hix. apply parses_ret. }
    cbv beta zeta. cbn [lt_used lt_poc_lsb].
    preads.
    rewrite lt_acc_cons. cbn [fst snd lt_val_sps].
    replace (acc ++ mkHLt (fst (hs_sps_lt sp ix)) (snd (hs_sps_lt sp ix)) msb (if msb then cyc else 0)
                 :: map (lt_val_sps sp) t ++ map lt_val_pics l2)
      with ((acc ++ [mkHLt (fst (hs_sps_lt sp ix)) (snd (hs_sps_lt sp ix)) msb (if msb then cyc else 0)])
            ++ map (lt_val_sps sp) t ++ map lt_val_pics l2)
      by (rewrite <- app_assoc; reflexivity).
    apply IH; [lia | exact Hp | exact H32 | assumption | exact Hv2].
Qed.

Lemma parses_optv {A} raw (p : bstate -> res (A * bstate)) (c : bool) e (a d : A) pos :
  (c = true -> parses raw p pos e a) -> (c = false -> d = a) ->
  parses raw (if c then p else ret d) pos (opt_bits c e) a.
Proof. destruct c; intros H1 H2; [apply H1; reflexivity | rewrite (H2 eq_refl); apply parses_ret]. Qed.

Definition sl_lt (hs : hsps) (npt0 : N) :=
  (if h_lt_present hs then
     nls <- (if 0 <? h_num_lt hs then x <- rd_ue BR ;; ret (u8 x) else ret 0) ;;
     nlp <- rd_ue BR ;;
     if loop_bound <? u64 (nls + nlp) then out_of_fuel else
     r <- hlt_loop BR (N.to_nat (u64 (nls + nlp))) 0 nls hs [] npt0 ;;
     ret (nls, nlp, fst r, snd r)
   else ret (0, 0, [], npt0)).

Definition lt_useds sp pp v : list bool :=
  map (fun e => snd (hs_sps_lt sp (fst (fst e)))) (hs_lt_sps_entries sp pp v)
  ++ map (fun e => snd (fst (fst e))) (hs_lt_pics_entries sp pp v).

Lemma parses_sl_lt raw sp pp v npt0 pos :
  hsps_valid sp = true -> hslice_valid sp pp v = true -> hs_nidr pp v = true ->
  parses raw (sl_lt (expected_hsps sp) npt0) pos
    (opt_bits (sx_long_term_ref_pics_present_flag sp) (ser_hslice_lt sp pp v))
    (lenN (hs_lt_sps_entries sp pp v), lenN (hs_lt_pics_entries sp pp v),
     map (lt_val_sps sp) (hs_lt_sps_entries sp pp v) ++ map lt_val_pics (hs_lt_pics_entries sp pp v),
     lt_acc npt0 (lt_useds sp pp v)).
Proof.
  intros Hs Hv Hn.
  destruct (hsps_valid_poc_lt sp Hs) as [Hp H32].
  unfold hslice_valid in Hv. split_all. clear Hs.
  unfold sl_lt, lt_useds. rewrite esp_lt_present, esp_num_lt.
  destruct (sx_long_term_ref_pics_present_flag sp) eqn:Hltp; cbn [opt_bits].
  - unfold ser_hslice_lt.
    set (E1 := hs_lt_sps_entries sp pp v) in *. set (E2 := hs_lt_pics_entries sp pp v) in *.
    eapply parses_bind.
    { apply (parses_optv raw _ (0 <? hs_num_lt_sps_in_sps sp) _ (lenN E1) 0).
      - intros _. pread. apply parses_ret_eq. apply u8_id. lia.
      - intros H0. unfold E1, hs_lt_sps_entries. rewrite H0, Bool.andb_false_r. reflexivity. }
    cbv beta.
    pread.
    rewrite (u64_id (lenN E1 + lenN E2)) by lia.
    replace (loop_bound <? lenN E1 + lenN E2) with false by (unfold loop_bound; lia).
    replace (N.to_nat (lenN E1 + lenN E2)) with (length E1 + length E2)%nat by (unfold lenN; lia).
    plast ltac:(apply (hlt_loop_sps raw sp (lenN E1) E1 E2 0 [] npt0);
                [lia | exact Hp | exact H32 | assumption | assumption]).
    cbn [app fst snd]. apply parses_ret.
  - apply parses_ret_eq. unfold hs_lt_sps_entries, hs_lt_pics_entries, hs_lt_on.
    rewrite Hltp, Bool.andb_false_r. reflexivity.
Qed.

(* ------------------------------------------------------------------ the block `if !idr { ... }` *)
Definition sl_rf (idr : bool) (hs : hsps) :=
  (if negb idr then
     poc <- rd BR (u8 (h_log2_poc hs + 4)) ;;
     stf <- rd_flag BR ;;
     rp <- sl_rp hs stf ;;
     let npt0 := hcount_in_use (fst rp) in
     lt <- sl_lt hs npt0 ;;
     tm <- (if h_tmvp hs then rd_flag BR else ret false) ;;
     let '(nls, nlp, lts, npt) := lt in
     ret (u16 poc, stf, fst rp, snd rp, (nls, nlp, lts), tm, npt)
   else ret (0, false, hrps_zero, 0, (0, 0, []), false, 0)).

(* the model's NumPicTotalCurr before the pps_curr_pic_ref term *)
Definition go_npt sp pp v : N :=
  if hs_nidr pp v then lt_acc (hcount_in_use (expected_hslice_rps sp pp v)) (lt_useds sp pp v) else 0.

Lemma parses_sl_rf raw sp pp v pos :
  hsps_valid sp = true -> hslice_valid sp pp v = true -> hs_main pp v = true ->
  parses raw (sl_rf (hs_idr v) (expected_hsps sp)) pos
    (opt_bits (negb (hs_idr v))
       (u (hs_poc_bits sp) (sx_slice_pic_order_cnt_lsb v)
        ++ fl (sx_short_term_ref_pic_set_sps_flag v)
        ++ (if sx_short_term_ref_pic_set_sps_flag v
            then opt_bits (1 <? hs_num_st sp) (u (N.log2_up (hs_num_st sp)) (sx_short_term_ref_pic_set_idx v))
            else ser_hrps (hs_num_st sp) (hs_num_st sp) (sx_slice_st_rps v))
        ++ opt_bits (sx_long_term_ref_pics_present_flag sp) (ser_hslice_lt sp pp v)
        ++ opt_bits (sx_sps_temporal_mvp_enabled_flag sp) (fl (sx_slice_temporal_mvp_enabled_flag v))))
    ((if hs_nidr pp v then sx_slice_pic_order_cnt_lsb v else 0),
     hs_nidr pp v && sx_short_term_ref_pic_set_sps_flag v,
     expected_hslice_rps sp pp v, hs_st_idx sp pp v,
     (lenN (hs_lt_sps_entries sp pp v), lenN (hs_lt_pics_entries sp pp v),
      map (lt_val_sps sp) (hs_lt_sps_entries sp pp v) ++ map lt_val_pics (hs_lt_pics_entries sp pp v)),
     hs_tmvp sp pp v, go_npt sp pp v).
Proof.
  intros Hs Hv Hm.
  assert (Hn : hs_nidr pp v = negb (hs_idr v)) by (unfold hs_nidr; rewrite Hm; reflexivity).
  unfold sl_rf.
  destruct (hs_idr v) eqn:Hidr; cbn [negb opt_bits] in *.
  - apply parses_ret_eq.
    unfold expected_hslice_rps, hs_st_idx, hs_st_idx_coded, hs_lt_sps_entries, hs_lt_pics_entries, hs_lt_on,
      hs_tmvp, go_npt.
    rewrite Hn. reflexivity.
  - destruct (hsps_valid_poc_lt sp Hs) as [Hp _].
    assert (Hlsb : sx_slice_pic_order_cnt_lsb v < 2 ^ hs_poc_bits sp)
      by (unfold hslice_valid in Hv; split_all; lia).
    assert (Hpb : 2 ^ hs_poc_bits sp <= 2 ^ 16)
      by (apply N.pow_le_mono_r; [lia | unfold hs_poc_bits; lia]).
    change (2 ^ 16) with 65536 in Hpb.
    rewrite esp_log2_poc, esp_tmvp. rewrite (u8_id (_ + 4)) by lia. fold (hs_poc_bits sp).
    pbind ltac:(apply parses_rd; exact Hlsb).
    pread.
    pbind ltac:(apply (parses_sl_rp raw sp pp v); assumption).
    cbn [fst snd].
    pbind ltac:(apply (parses_sl_lt raw sp pp v); assumption).
    pread.
    apply parses_ret_eq. unfold hs_tmvp, go_npt. rewrite Hn. cbn [andb].
    rewrite (u16_id _) by lia.
    destruct (sx_sps_temporal_mvp_enabled_flag sp); reflexivity.
Qed.

End NoDivision.
