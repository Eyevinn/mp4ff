(* C15HevcSpsVuiProofs.v — hrd_parameters / sub_layer_hrd_parameters / vui_parameters of the HEVC SPS:
   the model parsers on the ideal bit reader return the coded values. *)
From V.lib Require Import Base.
From V.c13 Require Import C13Spec C13Model.
From V.c15 Require Import C15Model C15Spec C15BitProofs C15AvcSpsProofs C15AvcVuiProofs C15AvcPpsProofs
  C15HevcModel C15HevcSpec C15HevcBitProofs.

Section NoDivision.
(* nothing in this section divides: lia without its preprocessing of / and mod, which visits every
   hypothesis at every call (dlia, C15HevcBitProofs, is lia with that step) *)
Ltac Zify.zify_convert_to_euclidean_division_equations_flag ::= constr:(false).

(* ------------------------------------------------------------------ sub_layer_hrd_parameters entry *)
Lemma parses_hcpb raw subpic c pos : hcpb_valid c = true ->
  parses raw (hparse_cpb BR subpic) pos (ser_hcpb subpic c) (expected_hcpb subpic c).
Proof.
  intros Hv. unfold hcpb_valid in Hv. split_all. unfold ue_ok in *.
  unfold hparse_cpb, ser_hcpb, expected_hcpb.
  preads.
  eapply parses_bind.
  { apply (parses_opt raw _ subpic _
             (sx_cpb_size_du_value_minus1 c, sx_bit_rate_du_value_minus1 c) (0, 0)).
    intros _. preads.
    apply parses_ret_eq. rewrite !u32_id by lia. reflexivity. }
  cbv beta.
  pread.
  apply parses_ret_eq. rewrite !u32_id by lia.
  destruct subpic; reflexivity.
Qed.

(* ------------------------------------------------------------------ one sub-layer of hrd_parameters *)
Lemma parses_hcpb_list raw subpic (l : list hcpb_syntax) cnt pos :
  (lenN l =? cnt + 1) && forallb hcpb_valid l = true -> cnt <= 31 ->
  parses raw (rep_n (cnt + 1) (hparse_cpb BR subpic)) pos (flat_map (ser_hcpb subpic) l)
         (map (expected_hcpb subpic) l).
Proof.
  intros H Hc. apply andb_prop in H. destruct H as [Hl Hf].
  apply (parses_rep_n raw (hparse_cpb BR subpic) (ser_hcpb subpic) (expected_hcpb subpic) l);
    [lia | unfold loop_bound; lia |].
  intros x pos' Hin. rewrite forallb_forall in Hf. apply parses_hcpb. apply Hf. exact Hin.
Qed.

Lemma parses_hsubhrd_tail raw (nal vcl sp : bool) s cnt pos fg fc el ld :
  (if nal then (lenN (sx_nal_cpbs s) =? cnt + 1) && forallb hcpb_valid (sx_nal_cpbs s) else true) = true ->
  (if vcl then (lenN (sx_vcl_cpbs s) =? cnt + 1) && forallb hcpb_valid (sx_vcl_cpbs s) else true) = true ->
  cnt <= 31 ->
  parses raw
    (bind (if nal then rep_n (cnt + 1) (hparse_cpb BR sp) else ret [])
       (fun n => bind (if vcl then rep_n (cnt + 1) (hparse_cpb BR sp) else ret [])
          (fun v => ret (mkHSubHrd fg fc el ld cnt n v))))
    pos
    (opt_bits nal (flat_map (ser_hcpb sp) (sx_nal_cpbs s))
     ++ opt_bits vcl (flat_map (ser_hcpb sp) (sx_vcl_cpbs s)))
    (mkHSubHrd fg fc el ld cnt
       (if nal then map (expected_hcpb sp) (sx_nal_cpbs s) else [])
       (if vcl then map (expected_hcpb sp) (sx_vcl_cpbs s) else [])).
Proof.
  intros Hn Hvc Hc.
  pbind ltac:(apply (parses_opt raw _ nal _ (map (expected_hcpb sp) (sx_nal_cpbs s)) []);
              intros E; rewrite E in Hn; apply parses_hcpb_list; assumption).
  plast ltac:(apply (parses_opt raw _ vcl _ (map (expected_hcpb sp) (sx_vcl_cpbs s)) []);
              intros E; rewrite E in Hvc; apply parses_hcpb_list; assumption).
  apply parses_ret.
Qed.

Lemma parses_hsubhrd raw nal vcl sp s pos : hsubhrd_valid nal vcl s = true ->
  parses raw (hparse_subhrd BR nal vcl sp) pos (ser_hsubhrd nal vcl sp s) (expected_hsubhrd nal vcl sp s).
Proof.
  intros Hv. unfold hsubhrd_valid in Hv. split_all.
  unfold hparse_subhrd, ser_hsubhrd, expected_hsubhrd, hsubhrd_cpb_cnt, hsub_low_delay in *.
  preads.
  change (if sx_fixed_pic_rate_general_flag s then true else sx_fixed_pic_rate_within_cvs_flag s)
    with (hsub_fixed_cvs s).
  destruct (hsub_fixed_cvs s); cbn [negb andb opt_bits] in *.
  - pbind ltac:(plast ltac:(apply parses_ue); apply parses_ret).
    rewrite u16_id by lia. cbn [negb].
    pbind ltac:(plast ltac:(apply parses_ue);
                replace (31 <? sx_cpb_cnt_minus1 s) with false by lia; apply parses_ret).
    rewrite u8_id by lia.
    apply parses_hsubhrd_tail; try assumption; lia.
  - pbind ltac:(plast ltac:(apply parses_flag); apply parses_ret).
    pbind ltac:(apply (parses_opt_neg raw _ (sx_low_delay_hrd_flag s) _ (sx_cpb_cnt_minus1 s) 0); intros _;
                plast ltac:(apply parses_ue);
                replace (31 <? sx_cpb_cnt_minus1 s) with false by lia;
                apply parses_ret_eq, u8_id; lia).
    apply parses_hsubhrd_tail; try assumption. destruct (sx_low_delay_hrd_flag s); lia.
Qed.

(* ------------------------------------------------------------------ hrd_parameters(1, maxNumSubLayersMinus1) *)
Lemma parses_hhrd raw ms h pos : hhrd_valid ms h = true -> ms <= 6 ->
  parses raw (hparse_hrd BR ms) pos (ser_hhrd h) (expected_hhrd h).
Proof.
  intros Hv Hms. unfold hhrd_valid in Hv. split_all.
  assert (Hloop : forall b pos',
    parses raw (rep_n (ms + 1) (hparse_subhrd BR (sx_nal_hrd_parameters_present_flag h)
                                              (sx_vcl_hrd_parameters_present_flag h) b)) pos'
      (flat_map (ser_hsubhrd (sx_nal_hrd_parameters_present_flag h)
                             (sx_vcl_hrd_parameters_present_flag h) b) (sx_hrd_sub_layers h))
      (map (expected_hsubhrd (sx_nal_hrd_parameters_present_flag h)
                             (sx_vcl_hrd_parameters_present_flag h) b) (sx_hrd_sub_layers h))).
  { intros b pos'.
    apply (parses_rep_n raw _ (ser_hsubhrd _ _ b) (expected_hsubhrd _ _ b) (sx_hrd_sub_layers h));
      [lia | unfold loop_bound; lia |].
    intros x p' Hin.
    match goal with H : forallb _ _ = true |- _ => rewrite forallb_forall in H; specialize (H x Hin) end.
    apply parses_hsubhrd. assumption. }
  unfold hparse_hrd, ser_hhrd, expected_hhrd. cbv beta zeta.
  set (nal := sx_nal_hrd_parameters_present_flag h) in *.
  set (vcl := sx_vcl_hrd_parameters_present_flag h) in *.
  set (sp := sx_sub_pic_hrd_params_present_flag h).
  preads.
  eapply parses_bind.
  { apply (parses_opt raw _ (nal || vcl) _
             (sp, (if sp then (sx_tick_divisor_minus2 h, sx_du_cpb_removal_delay_increment_length_minus1 h,
                               sx_sub_pic_cpb_params_in_pic_timing_sei_flag h,
                               sx_dpb_output_delay_du_length_minus1 h) else (0, 0, false, 0)),
              sx_bit_rate_scale h, sx_cpb_size_scale h, (if sp then sx_cpb_size_du_scale h else 0),
              sx_initial_cpb_removal_delay_length_minus1 h, sx_au_cpb_removal_delay_length_minus1 h,
              sx_dpb_output_delay_length_minus1 h)).
    intros _. pread.
    eapply parses_bind.
    { apply parses_opt. intros _.
      pbind ltac:(apply parses_rd; lia). pbind ltac:(apply parses_rd; lia).
      pread. plast ltac:(apply parses_rd; lia).
      apply parses_ret_eq. rewrite !u8_id by lia. reflexivity. }
    cbv beta.
    pbind ltac:(apply parses_rd; lia). pbind ltac:(apply parses_rd; lia).
    pbind ltac:(apply parses_opt; intros _; apply parses_rd; lia).
    pbind ltac:(apply parses_rd; lia). pbind ltac:(apply parses_rd; lia).
    plast ltac:(apply parses_rd; lia).
    apply parses_ret_eq. rewrite !u8_id by (destruct sp; lia). reflexivity. }
  cbv beta. rewrite !if_pair. cbv beta iota zeta.
  plast ltac:(apply Hloop). rewrite !if_if_and. apply parses_ret.
Qed.

(* ------------------------------------------------------------------ vui_parameters (E.2.1) *)
Lemma parses_hbsr raw a b c d e f g i pos :
  parses raw (hparse_bsr BR) pos
    (fl a ++ fl b ++ fl c ++ ue_bits d ++ ue_bits e ++ ue_bits f ++ ue_bits g ++ ue_bits i)
    (mkHBsr a b c d e f g i).
Proof.
  unfold hparse_bsr.
  preads.
Qed.

Lemma parses_hvui raw ms x pos : hvui_valid ms x = true -> ms <= 6 ->
  parses raw (hparse_vui BR ms) pos (ser_hvui x) (expected_hvui x).
Proof.
  intros Hv Hms. unfold hvui_valid in Hv. split_all. unfold ue_ok in *.
  unfold hparse_vui, ser_hvui.
  (* aspect ratio *)
  pread.
  eapply parses_bind.
  { apply (parses_opt raw _ (sx_aspect_ratio_info_present_flag x) _
             (if sx_aspect_ratio_idc x =? 255 then (sx_sar_width x, sx_sar_height x)
              else sar_of_idc (sx_aspect_ratio_idc x)) (0, 0)).
    intros _.
    pbind ltac:(apply parses_rd; lia).
    destruct (sx_aspect_ratio_idc x =? 255) eqn:E; cbn [opt_bits].
    - pbind ltac:(apply parses_rd; lia). plast ltac:(apply parses_rd; lia). apply parses_ret.
    - rewrite sar_table_agrees by lia. apply parses_ret. }
  cbv beta.
  preads.
  eapply parses_bind.
  { apply (parses_opt raw _ (sx_video_signal_type_present_flag x) _
             (u8 (sx_video_format x), sx_video_full_range_flag x, sx_colour_description_present_flag x,
              (if sx_colour_description_present_flag x
               then (u8 (sx_colour_primaries x), u8 (sx_transfer_characteristics x), u8 (sx_matrix_coeffs x))
               else (0, 0, 0))) (0, false, false, (0, 0, 0))).
    intros _.
    pbind ltac:(apply parses_rd; lia).
    preads.
    plast ltac:(apply parses_opt; intros _;
                pbind ltac:(apply parses_rd; lia); pbind ltac:(apply parses_rd; lia);
                plast ltac:(apply parses_rd; lia); apply parses_ret).
    apply parses_ret. }
  cbv beta.
  pread.
  eapply parses_bind.
  { apply (parses_opt raw _ (sx_chroma_loc_info_present_flag x) _
             (sx_chroma_sample_loc_type_top_field x, sx_chroma_sample_loc_type_bottom_field x) (0, 0)).
    intros _. preads. }
  cbv beta.
  preads.
  eapply parses_bind.
  { apply (parses_opt raw _ (sx_default_display_window_flag x) _
             (sx_def_disp_win_left_offset x, sx_def_disp_win_right_offset x,
              sx_def_disp_win_top_offset x, sx_def_disp_win_bottom_offset x) (0, 0, 0, 0)).
    intros _. preads. }
  cbv beta.
  pread.
  eapply parses_bind.
  { apply (parses_opt raw _ (sx_vui_timing_info_present_flag x) _
             (sx_vui_num_units_in_tick x, sx_vui_time_scale x, sx_vui_poc_proportional_to_timing_flag x,
              (if sx_vui_poc_proportional_to_timing_flag x
               then sx_vui_num_ticks_poc_diff_one_minus1 x else 0),
              sx_vui_hrd_parameters_present_flag x,
              (if sx_vui_hrd_parameters_present_flag x
               then Some (expected_hhrd (sx_vui_hrd x)) else None))
             (0, 0, false, 0, false, None)).
    intros Ht.
    pbind ltac:(apply parses_rd; lia).
    pbind ltac:(apply parses_rd; lia).
    preads.
    plast ltac:(apply parses_opt_some; intros Hh; apply (parses_hhrd raw ms); [|exact Hms];
                match goal with H : (if _ && _ then _ else _) = true |- _ =>
                  rewrite Ht, Hh in H; exact H end).
    apply parses_ret. }
  cbv beta.
  pread.
  plast ltac:(apply parses_opt_some; intros _; apply parses_hbsr).
  unfold expected_hvui, expected_hsar. cbv beta zeta.
  rewrite !u8_id by lia. rewrite !if_pair, !if_if_and. apply parses_ret.
Qed.

End NoDivision.
