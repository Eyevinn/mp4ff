(* C15Hevc2Proofs.v — the parsers of C15Hevc2Model over the ideal bit reader return the values coded by
   the serialisers of C15Hevc2Spec: reference location offsets, colour mapping octants (induction over
   the octant tree), colour mapping table, pps_multilayer_extension, delta_dlt, pps_3d_extension. *)
From V.lib Require Import Base.
From V.c13 Require Import C13Spec C13Model.
From V.c15 Require Import C15Model C15Spec C15BitProofs C15AvcSpsProofs C15HevcModel C15HevcSpec C15HevcBitProofs
  C15HevcPpsProofs C15Hevc2Model C15Hevc2Spec C15TieRelProofs.

Section NoDivision.
(* nothing in this section divides: lia without its preprocessing of / and mod, which visits every
   hypothesis at every call (dlia, C15HevcBitProofs, is lia with that step) *)
Ltac Zify.zify_convert_to_euclidean_division_equations_flag ::= constr:(false).

Lemma i16_id k : off_ok k = true -> i16 k = k.
Proof.
  unfold off_ok, i16. intros H. apply andb_true_iff in H. destruct H as [H1 H2].
  rewrite Z.mod_small by lia. lia.
Qed.

(* ---------------------------------------------------------------- reference location offsets *)
Definition is_some {A} (o : option A) : bool := match o with Some _ => true | None => false end.
Definition se4_body (o : option (Z * Z * Z * Z)) : list bool :=
  match o with None => [] | Some (a, b, c, d) => se_bits a ++ se_bits b ++ se_bits c ++ se_bits d end.
Lemma ser_se4_eq o : ser_se4 o = fl (is_some o) ++ se4_body o.
Proof. destruct o as [[[[a b] c] d]|]; reflexivity. Qed.

Lemma parses_se4 raw o pos : se4_ok o = true ->
  parses raw (hparse_se4 BR (is_some o)) pos (se4_body o) (expected_se4 o).
Proof.
  intros Hv. destruct o as [[[[a b] c] d]|]; cbn [is_some hparse_se4 se4_body expected_se4]; [|apply parses_ret].
  cbn [se4_ok] in Hv. split_all.
  preads. apply parses_ret_eq. rewrite !i16_id by assumption. reflexivity.
Qed.

Lemma parses_refloc raw x pos : refloc_valid x = true ->
  parses raw (hparse_refloc BR) pos (ser_refloc x) (expected_refloc x).
Proof.
  intros Hv. unfold refloc_valid in Hv. split_all.
  unfold hparse_refloc, ser_refloc, expected_refloc. rewrite !ser_se4_eq, <- !app_assoc.
  pbind ltac:(apply parses_rd; change (2 ^ 6) with 64; lia).
  pread. pbind ltac:(apply parses_se4; assumption).
  pread. pbind ltac:(apply parses_se4; assumption).
  destruct (sx_resample_phase_set x) as [[[[a b] c] d]|].
  - change ([true] ++ ue_bits a ++ ue_bits b ++ ue_bits c ++ ue_bits d)
      with (fl true ++ (ue_bits a ++ ue_bits b ++ ue_bits c ++ ue_bits d)).
    pread.
    eapply parses_bind_nil.
    { preads. }
    cbv beta iota zeta. split_all.
    destruct (expected_se4 (sx_scaled_ref_layer_offset x)) as [[[sl st] sr] sb].
    destruct (expected_se4 (sx_ref_region_offset x)) as [[[rl rt] rr] rb].
    apply parses_ret_eq. rewrite !u8_id by lia.
    destruct (sx_scaled_ref_layer_offset x), (sx_ref_region_offset x); reflexivity.
  - change [false] with (fl false). preads.
    destruct (expected_se4 (sx_scaled_ref_layer_offset x)) as [[[sl st] sr] sb].
    destruct (expected_se4 (sx_ref_region_offset x)) as [[[rl rt] rr] rb].
    apply parses_ret_eq. rewrite !u8_id by lia.
    destruct (sx_scaled_ref_layer_offset x), (sx_ref_region_offset x); reflexivity.
Qed.

(* ---------------------------------------------------------------- colour mapping octants *)
Lemma parses_coef raw rb c pos : coef_ok rb c = true ->
  parses raw (hparse_coef BR rb) pos (ser_coef rb c) (let '(q, r, s) := c in mkHCoef q r s).
Proof.
  destruct c as [[q r] s]. intros Hv. unfold coef_ok in Hv. split_all.
  unfold hparse_coef, ser_coef.
  pread. pbind ltac:(apply parses_rd; lia).
  pread.
  apply parses_ret_eq. f_equal.
  destruct (q =? 0), (r =? 0); cbn [negb orb andb] in *; try reflexivity.
  destruct s; [discriminate|reflexivity].
Qed.

Lemma parses_vertex raw rb v pos : vertex_ok rb v = true ->
  parses raw (hparse_vertex BR rb) pos (ser_vertex rb v) (expected_vertex v).
Proof.
  intros Hv. unfold hparse_vertex. destruct v as [cs|]; cbn [ser_vertex expected_vertex vertex_ok] in *.
  - split_all. change [true] with (fl true). pread.
    assert (Hl : length cs = 3%nat) by (unfold lenN in *; lia).
    rewrite <- Hl at 1.
    plast ltac:(apply (parses_rep raw (hparse_coef BR rb) (ser_coef rb)
                         (fun c => let '(q, r, s) := c in mkHCoef q r s) cs);
                intros x pos' Hx; apply parses_coef;
                match goal with H : forallb _ cs = true |- _ => rewrite forallb_forall in H; apply H; exact Hx end).
    apply parses_ret.
  - change [false] with (fl false). preads.
Qed.

Lemma parses_leaf raw rb shift iy icb icr : forall parts i pos,
  forallb (part_ok rb) parts = true ->
  parses raw (hparse_leaf BR (length parts) i shift rb iy icb icr) pos
         (flat_map (ser_part rb) parts) (expected_leaf parts i shift iy icb icr).
Proof.
  induction parts as [|p t IH]; intros i pos Hv; cbn [length hparse_leaf flat_map expected_leaf].
  - apply parses_ret.
  - cbn [forallb] in Hv. split_all.
    match goal with H : part_ok rb p = true |- _ => unfold part_ok in H end. split_all.
    assert (Hl : length p = 4%nat) by (unfold lenN in *; lia).
    rewrite <- Hl at 1.
    pbind ltac:(apply (parses_rep raw (hparse_vertex BR rb) (ser_vertex rb) expected_vertex p);
                intros x pos' Hx; apply parses_vertex;
                match goal with H : forallb _ p = true |- _ => rewrite forallb_forall in H; apply H; exact Hx end).
    plast ltac:(apply IH; assumption). apply parses_ret.
Qed.

Lemma parses_octants raw depth pn rb : forall t fuel d iy icb icr il pos,
  otree_valid depth pn rb d t = true -> depth - d < N.of_nat fuel ->
  parses raw (hparse_octants BR fuel depth pn rb d iy icb icr il) pos
         (ser_octants depth rb d t) (expected_octants depth pn d iy icb icr il t).
Proof.
  induction t as [parts|c0 IH0 c1 IH1 c2 IH2 c3 IH3 c4 IH4 c5 IH5 c6 IH6 c7 IH7];
    intros fuel d iy icb icr il pos Hv Hf; (destruct fuel as [|f]; [lia|]);
    cbn [hparse_octants ser_octants expected_octants otree_valid] in *.
  - split_all.
    pread.
    replace (if d <? depth then false else false) with false by (destruct (d <? depth); reflexivity).
    cbv iota.
    replace (N.to_nat pn) with (length parts) by (unfold lenN in *; lia).
    plast ltac:(apply parses_leaf; assumption).
    preads.
  - split_all.
    match goal with H : (d <? depth) = true |- _ => rewrite H end.
    change [true] with (fl true). pread.
    assert (Hf' : depth - (d + 1) < N.of_nat f) by lia.
    cbn [mapM oct_children].
    eapply parses_bind_nil.
    { eapply parses_bind_nil.
      { pbind ltac:(apply IH0; assumption). eapply parses_bind_nil; [|apply parses_ret].
        pbind ltac:(apply IH1; assumption). eapply parses_bind_nil; [|apply parses_ret].
        pbind ltac:(apply IH2; assumption). eapply parses_bind_nil; [|apply parses_ret].
        pbind ltac:(apply IH3; assumption). eapply parses_bind_nil; [|apply parses_ret].
        pbind ltac:(apply IH4; assumption). eapply parses_bind_nil; [|apply parses_ret].
        pbind ltac:(apply IH5; assumption). eapply parses_bind_nil; [|apply parses_ret].
        pbind ltac:(apply IH6; assumption). eapply parses_bind_nil; [|apply parses_ret].
        plast ltac:(apply IH7; assumption). eapply parses_bind_nil; [apply parses_ret|]. cbv beta.
        apply parses_ret. }
      cbv beta. apply parses_ret. }
    cbv beta iota zeta.
    pread.
    apply parses_ret_eq. cbn [concat]. rewrite app_nil_r. reflexivity.
Qed.

(* ---------------------------------------------------------------- colour_mapping_table *)
Lemma i64_id z : (-9223372036854775808 <= z < 9223372036854775808)%Z -> i64 z = z.
Proof. intros H. unfold i64. rewrite Z.mod_small by lia. lia. Qed.

Lemma res_bits_eq li lo rq df : li <= 8 -> lo <= 8 -> rq < 4 -> df < 4 ->
  (let res := i64 (10 + i64 (Z.of_N (u64 (li + 8))) - i64 (Z.of_N (u64 (lo + 8)))
                   - Z.of_N (u8 rq) - Z.of_N (u8 (u8 df + 1)))%Z in
   if (res <? 0)%Z then 0 else Z.to_N res)
  = Z.to_N (Z.max 0 (10 + Z.of_N (8 + li) - Z.of_N (8 + lo) - Z.of_N rq - Z.of_N (df + 1))).
Proof.
  intros H1 H2 H3 H4. cbv zeta.
  rewrite (u64_id (li + 8)), (u64_id (lo + 8)), (u8_id rq), (u8_id df), (u8_id (df + 1)) by lia.
  rewrite (i64_id (Z.of_N (li + 8))), (i64_id (Z.of_N (lo + 8))) by lia.
  rewrite i64_id by lia.
  replace (8 + li) with (li + 8) by lia. replace (8 + lo) with (lo + 8) by lia.
  destruct (Z.ltb_spec (10 + Z.of_N (li + 8) - Z.of_N (lo + 8) - Z.of_N rq - Z.of_N (df + 1)) 0); lia.
Qed.

Lemma parses_cm raw x pos : cm_valid x = true ->
  parses raw (hparse_cm BR) pos (ser_cm x) (expected_cm x).
Proof.
  intros Hv. unfold cm_valid in Hv. split_all.
  unfold hparse_cm, ser_cm, expected_cm.
  set (ids := sx_cm_ref_layer_id x) in *.
  pread.
  replace (N.to_nat (u8 (lenN ids - 1) + 1)) with (length ids)
    by (rewrite u8_id by lia; unfold lenN in *; lia).
  pbind ltac:(apply (parses_rep_until_err raw _ (u 6) (fun i => i) ids); intros i pos' Hi;
              plast ltac:(apply parses_rd; change (2 ^ 6) with 64;
                          match goal with H : forallb _ ids = true |- _ =>
                            rewrite forallb_forall in H; specialize (H i Hi); lia end);
              apply parses_ret_eq; apply u8_id;
              match goal with H : forallb _ ids = true |- _ =>
                rewrite forallb_forall in H; specialize (H i Hi); lia end).
  pbind ltac:(apply parses_rd; change (2 ^ 2) with 4; lia).
  pbind ltac:(apply parses_rd; change (2 ^ 2) with 4; lia).
  preads.
  pbind ltac:(apply parses_rd; change (2 ^ 2) with 4; lia).
  pbind ltac:(apply parses_rd; change (2 ^ 2) with 4; lia).
  rewrite (u8_id (sx_cm_octant_depth x)), (u8_id (sx_cm_y_part_num_log2 x)) by lia.
  pbind ltac:(apply (parses_opt raw _ (sx_cm_octant_depth x =? 1) _
                       (sx_cm_adapt_threshold_u_delta x, sx_cm_adapt_threshold_v_delta x) (0%Z, 0%Z));
              intros _; pbind ltac:(apply parses_se); plast ltac:(apply parses_se); apply parses_ret).
  pose proof (res_bits_eq (sx_luma_bit_depth_cm_input_minus8 x) (sx_luma_bit_depth_cm_output_minus8 x)
                (sx_cm_res_quant_bits x) (sx_cm_delta_flc_bits_minus1 x) ltac:(lia) ltac:(lia) ltac:(lia) ltac:(lia)) as Hr.
  cbv zeta in Hr. rewrite Hr. fold (cm_res_ls_bits x).
  assert (Hrb : cm_res_ls_bits x <= 56) by (unfold cm_res_ls_bits; lia).
  replace (56 <? cm_res_ls_bits x) with false by lia. cbv iota.
  plast ltac:(apply parses_octants; [assumption|cbn; lia]).
  pread.
  apply parses_ret_eq. rewrite map_id, !u8_id by lia.
  destruct (sx_cm_octant_depth x =? 1); reflexivity.
Qed.

(* ---------------------------------------------------------------- pps_multilayer_extension *)
Lemma parses_ppsml raw x pos : ppsml_valid x = true ->
  parses raw (hparse_pps_ml BR) pos (ser_ppsml x) (expected_ppsml x).
Proof.
  intros Hv. unfold ppsml_valid in Hv. split_all.
  unfold hparse_pps_ml, ser_ppsml, expected_ppsml.
  preads.
  pbind ltac:(apply (parses_opt raw _ (sx_pps_infer_scaling_list_flag x) _ (sx_pps_scaling_list_ref_layer_id x) 0);
              intros _; plast ltac:(apply parses_rd; change (2 ^ 6) with 64; lia);
              apply parses_ret_eq; apply u8_id; lia).
  pread.
  pbind ltac:(apply (parses_rep_until_err_n raw _ ser_refloc expected_refloc (sx_ref_loc_offsets x));
              [reflexivity | unfold loop_bound; lia |
               intros r pos' Hr; apply parses_refloc;
               match goal with H : forallb refloc_valid _ = true |- _ => rewrite forallb_forall in H; apply H; exact Hr end]).
  pread.
  plast ltac:(apply (parses_opt_some raw _ (sx_colour_mapping_enabled_flag x)); intros Hc; apply parses_cm;
              match goal with H : (if sx_colour_mapping_enabled_flag x then _ else true) = true |- _ =>
                rewrite Hc in H; exact H end).
  preads.
Qed.

(* ---------------------------------------------------------------- delta_dlt / pps_3d_extension *)
Lemma u64_dec m : 0 < m -> m < 18446744073709551616 -> u64 (m + 18446744073709551615) = m - 1.
Proof.
  intros H1 H2. unfold u64. replace (m + 18446744073709551615) with ((m - 1) + 1 * 18446744073709551616) by lia.
  rewrite N.mod_add by lia. apply N.mod_small. lia.
Qed.

Lemma parses_deltadlt raw bd x pos : bd <= 16 -> deltadlt_valid bd x = true ->
  parses raw (hparse_delta_dlt BR bd) pos (ser_deltadlt bd x) (expected_deltadlt x).
Proof.
  intros Hbd Hv. unfold deltadlt_valid in Hv.
  assert (Hp : 2 ^ bd <= 65536) by (change 65536 with (2 ^ 16); apply N.pow_le_mono_r; lia).
  unfold hparse_delta_dlt, ser_deltadlt, expected_deltadlt.
  unfold dd_has_diffs, dd_has_min, dd_max, dd_has_max in *.
  set (nv := sx_num_val_delta_dlt x) in *.
  set (M := if 1 <? nv then sx_max_diff x else 0) in *.
  set (hm := (2 <? nv) && (0 <? M)) in *.
  split_all.
  assert (HM : M < 65536) by (unfold M; destruct (1 <? nv); lia).
  pbind ltac:(apply parses_rd; lia).
  destruct (0 <? nv) eqn:Hnz; cbn [opt_bits andb].
  2:{ preads. }
  assert (Hc : forall mn, mn = (if hm then sx_min_diff_minus1 x else u64 (M + 18446744073709551615)) ->
               (u64 (mn + 1) <? M) = (if hm then sx_min_diff_minus1 x + 1 <? M else false)).
  { intros mn ->. destruct hm eqn:Hh.
    - assert (sx_min_diff_minus1 x < 2 ^ ceil_log2 (M + 1)) by lia.
      assert (2 ^ ceil_log2 (M + 1) <= 2 ^ 32).
      { apply N.pow_le_mono_r; [lia|]. apply ceil_log2_le32. }
      change (2 ^ 32) with 4294967296 in *. rewrite u64_id by lia. reflexivity.
    - destruct (N.eq_dec M 0) as [E|E].
      + rewrite E. change (u64 (0 + 18446744073709551615)) with 18446744073709551615.
        change (u64 (18446744073709551615 + 1)) with 0. reflexivity.
      + rewrite u64_dec by lia. replace (M - 1 + 1) with M by lia. rewrite u64_id by lia. lia. }
  destruct (if hm then sx_min_diff_minus1 x + 1 <? M else false) eqn:Hd; cbn [opt_bits andb] in *.
  - split_all. destruct hm eqn:Hh; [|discriminate].
    eapply parses_bind_nil.
    { pbind ltac:(apply (parses_opt raw _ (1 <? nv) _ (sx_max_diff x) 0); intros _; apply parses_rd; lia).
      fold M. fold hm. rewrite !Hh. rewrite (u64_id (M + 1)) by lia. cbn [opt_bits].
      pbind ltac:(apply parses_rd; lia).
      pbind ltac:(apply parses_rd; lia).
      rewrite (Hc _ eq_refl); try rewrite Hd; cbv iota.
      assert (Hw : u64 (u64 (M + 18446744073709551616 - u64 (sx_min_diff_minus1 x + 1)) + 1)
                   = M - (sx_min_diff_minus1 x + 1) + 1).
      { rewrite (u64_id (sx_min_diff_minus1 x + 1)) by lia.
        replace (M + 18446744073709551616 - (sx_min_diff_minus1 x + 1))
          with ((M - (sx_min_diff_minus1 x + 1)) + 1 * 18446744073709551616) by lia.
        unfold u64 at 2. rewrite N.mod_add by lia. rewrite N.mod_small by lia. apply u64_id. lia. }
      rewrite Hw.
      plast ltac:(apply (parses_rep_until_err_n raw _ (u (ceil_log2 (M - (sx_min_diff_minus1 x + 1) + 1)))
                           (fun d => d) (sx_delta_val_diff_minus_min x));
                  [lia | unfold loop_bound; lia |
                   intros d pos' Hdi; apply parses_rd;
                   match goal with H : forallb _ (sx_delta_val_diff_minus_min x) = true |- _ =>
                     rewrite forallb_forall in H; specialize (H d Hdi); lia end]).
      apply parses_ret. }
    cbv beta iota zeta.
    pread.
    apply parses_ret_eq. rewrite map_id. reflexivity.
  - eapply parses_bind_nil.
    { pbind ltac:(apply (parses_opt raw _ (1 <? nv) _ (sx_max_diff x) 0); intros _; apply parses_rd; lia).
      fold M. fold hm. rewrite (u64_id (M + 1)) by lia.
      pbind ltac:(apply (parses_opt raw _ hm _ (sx_min_diff_minus1 x) (u64 (M + 18446744073709551615)));
                  intros Hh; apply parses_rd;
                  match goal with H : (if hm then _ else true) = true |- _ => rewrite Hh in H; lia end).
      rewrite app_nil_r.
      plast ltac:(apply parses_rd; lia).
      rewrite (Hc _ eq_refl); try rewrite Hd; cbv iota.
      preads. }
    cbv beta iota zeta.
    pread.
    apply parses_ret_eq. f_equal.
    destruct hm; [reflexivity|]. destruct (N.eqb_spec M 0) as [E|E].
    + rewrite E. reflexivity.
    + apply u64_dec; lia.
Qed.

Lemma parses_dlayer raw bd l pos : bd <= 16 -> dlayer_valid bd l = true ->
  parses raw (hparse_dlayer BR bd) pos (ser_dlayer bd l) (expected_dlayer l).
Proof.
  intros Hbd Hv. unfold hparse_dlayer.
  assert (Hp : 2 ^ bd <= 65536) by (change 65536 with (2 ^ 16); apply N.pow_le_mono_r; lia).
  destruct l as [|vals|p d]; cbn [ser_dlayer expected_dlayer dlayer_valid] in *.
  - change [false] with (fl false). preads.
  - change ([true; false; true] ++ vals) with (fl true ++ fl false ++ fl true ++ vals).
    preads. cbn [negb].
    pread.
    rewrite <- (flat_map_fl vals) at 1.
    plast ltac:(apply (parses_rep_until_err_n raw _ fl (fun b => b) vals);
                [lia | unfold loop_bound; lia | intros b pos' _; apply parses_flag]).
    apply parses_ret_eq. rewrite map_id. reflexivity.
  - destruct p.
    + change ([true; true] ++ ser_deltadlt bd d) with (fl true ++ fl true ++ ser_deltadlt bd d).
      preads. cbn [negb].
      apply parses_bind_ret. cbv beta iota.
      plast ltac:(apply parses_deltadlt; assumption). apply parses_ret.
    + change ([true; false; false] ++ ser_deltadlt bd d) with (fl true ++ fl false ++ fl false ++ ser_deltadlt bd d).
      preads. cbn [negb].
      pread.
      plast ltac:(apply parses_deltadlt; assumption). apply parses_ret.
Qed.

Lemma parses_pps3d raw x pos : pps3d_valid x = true ->
  parses raw (hparse_pps_3d BR) pos (ser_pps3d x) (expected_pps3d x).
Proof.
  intros Hv. unfold pps3d_valid in Hv. split_all.
  unfold hparse_pps_3d, ser_pps3d, expected_pps3d.
  set (ls := sx_depth_layers x) in *. set (bd := sx_pps_bit_depth_for_depth_layers_minus8 x) in *.
  pread.
  destruct (sx_dlts_present_flag x); cbn [opt_bits].
  - eapply parses_bind_nil.
    { pbind ltac:(apply parses_rd; change (2 ^ 6) with 64; lia).
      pbind ltac:(apply parses_rd; change (2 ^ 4) with 16; lia).
      replace (N.to_nat (u8 (lenN ls - 1) + 1)) with (length ls)
        by (rewrite u8_id by lia; unfold lenN in *; lia).
      rewrite (u8_id bd), (u8_id (bd + 8)) by lia.
      plast ltac:(apply (parses_rep_until_err raw _ (ser_dlayer (bd + 8)) expected_dlayer ls);
                  intros l pos' Hl; apply parses_dlayer; [lia|];
                  match goal with H : forallb _ ls = true |- _ => rewrite forallb_forall in H; apply H; exact Hl end).
      apply parses_ret. }
    cbv beta iota zeta. pread.
    apply parses_ret_eq. rewrite !u8_id by lia. reflexivity.
  - rewrite ?app_nil_r. preads.
Qed.

End NoDivision.
