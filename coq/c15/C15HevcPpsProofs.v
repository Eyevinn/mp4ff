(* C15HevcPpsProofs.v — hevc.ParsePPSNALUnit (model, ideal bit reader) applied to the NAL unit built
   by the independent serialiser of pic_parameter_set_rbsp (7.3.2.3, range and SCC extensions)
   returns the coded values. *)
From V.lib Require Import Base.
From V.c13 Require Import C13Spec C13Model.
From V.c15 Require Import C15Model C15Spec C15BitProofs C15AvcSpsProofs C15AvcPpsProofs
  C15HevcModel C15HevcSpec C15HevcBitProofs C15HevcSpsPtlProofs C15HevcSpsExtProofs.


Ltac ppeek tac := eapply parses_bind_peek; [ tac | cbv beta iota zeta ].
Ltac rpeek tac := eapply runs_bind_peek; [ tac | cbv beta iota zeta ].

Section NoDivision.
(* nothing in this section divides: lia without its preprocessing of / and mod, which visits every
   hypothesis at every call (dlia, C15HevcBitProofs, is lia with that step) *)
Ltac Zify.zify_convert_to_euclidean_division_equations_flag ::= constr:(false).

(* ------------------------------------------------------------------ small tools *)

Lemma i8_id k : i8_ok k = true -> i8 k = k.
Proof. unfold i8_ok, i8. intros H. dlia. Qed.

Lemma i8_zz (c : bool) k : i8_ok k = true -> i8 (if c then k else 0%Z) = (if c then k else 0%Z).
Proof. intros H. destruct c; [apply i8_id; exact H | reflexivity]. Qed.

Lemma parses_ue_list raw (l : list N) n pos :
  n = lenN l -> n <= loop_bound ->
  parses raw (rep_until_err_n BR n (rd_ue BR)) pos (flat_map ue_bits l) l.
Proof.
  intros Hn Hb.
  pose proof (parses_rep_until_err_n raw (rd_ue BR) ue_bits (fun x : N => x) l n pos Hn Hb) as P.
  rewrite map_id in P. apply P. intros. apply parses_ue.
Qed.

(* ------------------------------------------------------------------ pps_range_extension (7.3.2.3.2) *)
Lemma parses_hppsrange raw tskip x pos :
  1 <= lenN (sx_cb_cr_qp_offset_list x) -> lenN (sx_cb_cr_qp_offset_list x) <= 6 ->
  forallb (fun e => i8_ok (fst e) && i8_ok (snd e)) (sx_cb_cr_qp_offset_list x) = true ->
  parses raw (hparse_pps_range BR tskip) pos (ser_hppsrange tskip x) (expected_hppsrange tskip x).
Proof.
  intros H1 H6 Hl.
  unfold hparse_pps_range, ser_hppsrange, expected_hppsrange. cbv zeta.
  pbind ltac:(apply (parses_opt raw _ tskip _ (sx_log2_max_transform_skip_block_size_minus2 x) 0);
              intros _; apply parses_ue).
  preads.
  destruct (sx_chroma_qp_offset_list_enabled_flag x); cbn [opt_bits].
  - eapply parses_bind.
    { preads.
      plast ltac:(apply (parses_rep_until_err_n raw _ (fun e : Z * Z => se_bits (fst e) ++ se_bits (snd e))
                           (fun e : Z * Z => e) (sx_cb_cr_qp_offset_list x));
                  [lia | unfold loop_bound; lia |]).
      { intros e pos' Hin. rewrite forallb_forall in Hl. specialize (Hl e Hin).
        apply andb_prop in Hl. destruct Hl as [Ha Hb].
        preads.
        apply parses_ret_eq. rewrite (i8_id _ Ha), (i8_id _ Hb). destruct e; reflexivity. }
      apply parses_ret. }
    cbv beta iota zeta.
    preads.
    apply parses_ret_eq. rewrite map_id. reflexivity.
  - cbn [app]. preads.
Qed.

(* ------------------------------------------------------------------ pps_scc_extension (7.3.2.3.3) *)
Lemma parses_hppsscc raw x pos : hppsscc_valid x = true ->
  parses raw (hparse_pps_scc BR) pos (ser_hppsscc x) (expected_hppsscc x).
Proof.
  intros Hv. unfold hppsscc_valid in Hv. cbv zeta in Hv. split_all.
  unfold hparse_pps_scc, ser_hppsscc, expected_hppsscc. cbv zeta.
  set (ini := sx_pps_palette_predictor_initializer x) in *.
  set (pi := sx_pps_palette_predictor_initializers_present_flag x) in *.
  set (mono := sx_monochrome_palette_flag x) in *.
  set (lb := sx_luma_bit_depth_entry_minus8 x) in *.
  set (cb := sx_chroma_bit_depth_entry_minus8 x) in *.
  preads.
  eapply parses_bind.
  { apply (parses_opt raw _ (sx_residual_adaptive_colour_transform_enabled_flag x) _
             (sx_pps_slice_act_qp_offsets_present_flag x, sx_pps_act_y_qp_offset_plus5 x,
              sx_pps_act_cb_qp_offset_plus5 x, sx_pps_act_cr_qp_offset_plus3 x)
             (false, 0%Z, 0%Z, 0%Z)).
    intros _. preads. }
  cbv beta. rewrite !if_pair.
  pread.
  (* the palette predictor initialisers, in the guarded form of expected_hppsscc *)
  eapply parses_bind_nil.
  { instantiate (1 := let nz := pi && (0 <? lenN (hd [] ini)) in
                      ((if pi then lenN (hd [] ini) else 0), nz && mono, (if nz then lb else 0),
                       (if nz && negb mono then cb else 0), (if nz then ini else []))).
    cbv zeta. destruct pi; cbn [opt_bits andb] in *; [|apply parses_ret].
    pread.
    destruct (0 <? lenN (hd [] ini)) eqn:Hn; cbn [opt_bits andb] in *; [|apply parses_ret].
    split_all.
    assert (El : u64 (lb + 8) = lb + 8) by (apply u64_id; lia).
    assert (Ec : u64 (cb + 8) = cb + 8) by (apply u64_id; lia).
    destruct ini as [|l rest]; [discriminate|]. cbn [hd tl forallb] in *. split_all.
    preads.
    destruct mono; cbn [negb opt_bits andb app] in *.
    - destruct rest as [|c1 rest]; [|rewrite !lenN_cons in *; lia].
      cbn [flat_map]. rewrite !app_nil_r.
      replace ((8 <? lb) || (8 <? 0)) with false by lia. rewrite El.
      plast ltac:(apply (parses_palette_comp raw (lb + 8) l); [reflexivity | lia | assumption]).
      preads.
    - destruct rest as [|c1 [|c2 [|c3 rest]]]; try (rewrite ?lenN_cons, ?lenN_nil in *; lia).
      cbn [flat_map forallb] in *. split_all. rewrite !app_nil_r.
      replace ((8 <? lb) || (8 <? cb)) with false by lia. rewrite El, Ec.
      pbind ltac:(apply (parses_palette_comp raw (lb + 8) l); [reflexivity | lia | assumption]).
      pread.
      pbind ltac:(apply (parses_palette_comp raw (cb + 8) c1); [lia | lia | assumption]).
      pread.
      plast ltac:(apply (parses_palette_comp raw (cb + 8) c2); [lia | lia | assumption]).
      preads. }
  cbv beta iota zeta. preads.
Qed.

(* ------------------------------------------------------------------ tiles, deblocking, extension flags *)
Lemma parses_hpps_tiles raw v pos : hpps_valid v = true ->
  let t := sx_tiles_enabled_flag v in
  let nu := t && negb (sx_uniform_spacing_flag v) in
  parses raw
    (if t then
       bind (rd_ue BR) (fun nc => bind (rd_ue BR) (fun nr => bind (rd_flag BR) (fun un =>
       bind (if negb un then
               bind (rep_until_err_n BR nc (rd_ue BR)) (fun ws =>
               bind (rep_until_err_n BR nr (rd_ue BR)) (fun hs => ret (ws, hs)))
             else ret ([], [])) (fun wh =>
       bind (rd_flag BR) (fun lft => ret (nc, nr, un, wh, lft))))))
     else ret (0, 0, false, ([], []), false))
    pos
    (opt_bits t
       (ue_bits (sx_num_tile_columns_minus1 v) ++ ue_bits (sx_num_tile_rows_minus1 v)
        ++ fl (sx_uniform_spacing_flag v)
        ++ opt_bits (negb (sx_uniform_spacing_flag v))
             (flat_map ue_bits (sx_column_width_minus1 v) ++ flat_map ue_bits (sx_row_height_minus1 v))
        ++ fl (sx_loop_filter_across_tiles_enabled_flag v)))
    ((if t then sx_num_tile_columns_minus1 v else 0), (if t then sx_num_tile_rows_minus1 v else 0),
     t && sx_uniform_spacing_flag v,
     ((if nu then sx_column_width_minus1 v else []), (if nu then sx_row_height_minus1 v else [])),
     t && sx_loop_filter_across_tiles_enabled_flag v).
Proof.
  intros Hv. cbv zeta. unfold hpps_valid in Hv. cbv zeta in Hv. split_all.
  destruct (sx_tiles_enabled_flag v); cbn [opt_bits andb]; [|apply parses_ret].
  preads.
  destruct (sx_uniform_spacing_flag v); cbn [negb opt_bits app] in *.
  - preads.
  - split_all.
    eapply parses_bind.
    { pbind ltac:(apply parses_ue_list; [lia | unfold loop_bound; lia]).
      plast ltac:(apply parses_ue_list; [lia | unfold loop_bound; lia]).
      apply parses_ret. }
    cbv beta.
    preads.
Qed.

Lemma parses_hpps_db raw v pos : hpps_valid v = true ->
  let dc := sx_deblocking_filter_control_present_flag v in
  let bt := dc && negb (sx_pps_deblocking_filter_disabled_flag v) in
  parses raw
    (if dc then
       bind (rd_flag BR) (fun ov => bind (rd_flag BR) (fun dis =>
       bind (if negb dis then bind (rd_se BR) (fun a => bind (rd_se BR) (fun b => ret (i8 a, i8 b)))
             else ret (0%Z, 0%Z)) (fun bt => ret (ov, dis, bt))))
     else ret (false, false, (0%Z, 0%Z)))
    pos
    (opt_bits dc
       (fl (sx_deblocking_filter_override_enabled_flag v) ++ fl (sx_pps_deblocking_filter_disabled_flag v)
        ++ opt_bits (negb (sx_pps_deblocking_filter_disabled_flag v))
             (se_bits (sx_pps_beta_offset_div2 v) ++ se_bits (sx_pps_tc_offset_div2 v))))
    (dc && sx_deblocking_filter_override_enabled_flag v, dc && sx_pps_deblocking_filter_disabled_flag v,
     ((if bt then sx_pps_beta_offset_div2 v else 0%Z), (if bt then sx_pps_tc_offset_div2 v else 0%Z))).
Proof.
  intros Hv. cbv zeta. unfold hpps_valid in Hv. cbv zeta in Hv. split_all.
  destruct (sx_deblocking_filter_control_present_flag v); cbn [opt_bits andb]; [|apply parses_ret].
  preads.
  destruct (sx_pps_deblocking_filter_disabled_flag v); cbn [negb opt_bits].
  - preads.
  - eapply parses_bind_nil.
    { preads. }
    cbv beta. apply parses_ret_eq. rewrite !i8_id by assumption. reflexivity.
Qed.

Lemma parses_hpps_extflags raw v pos : sx_pps_extension_4bits v < 16 ->
  parses raw
    (if sx_pps_extension_present_flag v then
       bind (rd_flag BR) (fun a => bind (rd_flag BR) (fun b => bind (rd_flag BR) (fun c =>
       bind (rd_flag BR) (fun d => bind (rd BR 4) (fun e => ret (a, b, c, d, u8 e))))))
     else ret (false, false, false, false, 0))
    pos
    (opt_bits (sx_pps_extension_present_flag v)
       (fl (sx_pps_range_extension_flag v) ++ fl (sx_pps_multilayer_extension_flag v)
        ++ fl (sx_pps_3d_extension_flag v) ++ fl (sx_pps_scc_extension_flag v)
        ++ u 4 (sx_pps_extension_4bits v)))
    (hpps_ext_on v sx_pps_range_extension_flag, hpps_ext_on v sx_pps_multilayer_extension_flag,
     hpps_ext_on v sx_pps_3d_extension_flag, hpps_ext_on v sx_pps_scc_extension_flag, hpps_ext4 v).
Proof.
  intros H4. unfold hpps_ext_on, hpps_ext4.
  destruct (sx_pps_extension_present_flag v); cbn [opt_bits andb]; [|apply parses_ret].
  preads. plast ltac:(apply parses_rd; lia).
  apply parses_ret_eq. rewrite u8_id by lia. reflexivity.
Qed.

(* ------------------------------------------------------------------ the NAL unit *)
Lemma hevc_pps spsmap v :
  hpps_valid v = true -> spsmap (sx_pps_seq_parameter_set_id v) = true ->
  hparse_pps_br spsmap (hnalu_pps v) = Ok (expected_hpps v).
Proof.
  intros Hv Hmap.
  pose proof (parses_hpps_tiles (hraw_pps v) v) as Ptiles. cbv zeta in Ptiles.
  specialize (fun pos => Ptiles pos Hv).
  pose proof (parses_hpps_db (hraw_pps v) v) as Pdb. cbv zeta in Pdb.
  specialize (fun pos => Pdb pos Hv).
  unfold hpps_valid in Hv. cbv zeta in Hv. split_all.
  destruct (hnal_header_u16 34 (sx_pps_nuh_layer_id v) (sx_pps_nuh_temporal_id_plus1 v))
    as (Hh & Hlt & Hty); [lia | lia | lia |].
  unfold hparse_pps_br, hnalu_pps. rewrite binit_hnalu. fold (hraw_pps v).
  set (raw := hraw_pps v) in *.
  set (n := lenN (hnal_header 34 (sx_pps_nuh_layer_id v) (sx_pps_nuh_temporal_id_plus1 v) ++ ser_hpps v)).
  rewrite app_assoc.
  change (runs_to raw (hparse_pps BR spsmap) 0
            (hnal_header 34 (sx_pps_nuh_layer_id v) (sx_pps_nuh_temporal_id_plus1 v) ++ ser_hpps v)
            (trailing_bits n) (expected_hpps v)).
  rewrite Hh. unfold hparse_pps, ser_hpps.
  rbind ltac:(apply parses_rd; exact Hlt).
  rewrite Hty. change (negb (34 =? 34)) with false. cbv iota.
  rreads.
  rewrite (u32_id (sx_pps_seq_parameter_set_id v)) by lia. rewrite Hmap. cbn [negb]. cbv iota.
  rreads.
  rbind ltac:(apply parses_rd; change (2 ^ 3) with 8; lia).
  rreads.
  rbind ltac:(apply Ptiles).
  rreads.
  rbind ltac:(apply Pdb).
  rread.
  rbind ltac:(apply (parses_opt raw _ (sx_pps_scaling_list_data_present_flag v) _ tt tt);
              intros Hs; apply parses_hskip_sl;
              match goal with H : (if sx_pps_scaling_list_data_present_flag v then _ else true) = true |- _ =>
                rewrite Hs in H; exact H end).
  rreads.
  rbind ltac:(apply parses_hpps_extflags; lia).
  rread.
  rbind ltac:(apply parses_opt_some; intros _; apply parses_hppsrange; [lia | lia | assumption]).
  match goal with H : negb (hpps_ext_on v sx_pps_multilayer_extension_flag) = true |- _ =>
    apply Bool.negb_true_iff in H; rewrite H end.
  match goal with H : negb (hpps_ext_on v sx_pps_3d_extension_flag) = true |- _ =>
    apply Bool.negb_true_iff in H; rewrite H end.
  cbn [orb]. cbv iota.
  rbind ltac:(apply parses_opt_some; intros _; apply parses_hppsscc; assumption).
  eapply runs_bind_t.
  { instantiate (1 := if 0 <? hpps_ext4 v then sx_pps_extension_data_flags v else []).
    destruct (0 <? hpps_ext4 v); cbn [opt_bits].
    - apply (hext_data_loop_ok raw n (sx_pps_extension_data_flags v) ext_fuel [] _).
      unfold ext_fuel, lenN in *. lia.
    - apply parses_t_ret. }
  rewrite hparse_end_ok. f_equal.
  unfold expected_hpps. cbv zeta.
  rewrite (u32_id (sx_pps_pic_parameter_set_id v)) by lia.
  rewrite (u8_id (sx_num_extra_slice_header_bits v)) by lia.
  rewrite (u8_id (sx_num_ref_idx_l0_default_active_minus1 v)) by lia.
  rewrite (u8_id (sx_num_ref_idx_l1_default_active_minus1 v)) by lia.
  rewrite !i8_id by assumption.
  reflexivity.
Qed.

End NoDivision.
