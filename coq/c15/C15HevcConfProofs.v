(* C15HevcConfProofs.v — CreateHEVCDecConfRec copies the SPS values and the NAL units into the record
   (hevc_confrec_create); hevc.CodecString writes the codecs parameter of 14496-15 E.3
   (hevc_codec_string): Reverse32 = the 32 flags in reverse order, the strip loop = dropping the
   trailing zero bytes of the six constraint bytes. *)
From V.lib Require Import Base.
From V.c13 Require Import C13Spec C13Model.
From V.c15 Require Import C15Model C15Spec C15BitProofs C15AvcSpsProofs C15HevcModel C15HevcSpec
  C15HevcBitProofs C15HevcConfModel C15HevcConfSpec.
From V.c16 Require Import C16ConfRecModel.

(* ------------------------------------------------------------------ what hsps_valid says about the fields used *)
Lemma hsps_valid_conf v :
  hsps_valid v = true ->
  let g := sx_general (sx_sps_ptl v) in
  sx_profile_space g < 4 /\ sx_profile_idc g < 32 /\ sx_profile_compatibility_flags g < 4294967296
  /\ sx_constraint_43bits g < 2 ^ 43 /\ sx_general_level_idc (sx_sps_ptl v) < 256
  /\ sx_chroma_format_idc v <= 3.
Proof.
  intros Hv. cbv zeta. unfold hsps_valid in Hv. cbv zeta in Hv. split_all.
  unfold hptl_valid, hprofile_valid in *. split_all.
  change (2 ^ 32) with 4294967296 in *.
  repeat split; lia.
Qed.

(* ------------------------------------------------------------------ CreateHEVCDecConfRec *)
Lemma hconf_array_eq c t l : t < 128 -> hconf_array c t l = ((if c then 128 else 0) + t, l).
Proof.
  intros Ht. unfold hconf_array. f_equal. unfold u8. rewrite (N.mod_small t 256) by lia.
  destruct c.
  - change 128 with (1 * 2 ^ 7). rewrite lor_shifted_add by (change (2 ^ 7) with 128; lia). reflexivity.
  - rewrite N.lor_0_l. reflexivity.
Qed.

Lemma hevc_confrec_create parse v vps sps_rest pps vc sc pc inc :
  parse (hnalu_sps v) = Ok (expected_hsps v) ->
  hconf_create parse vps (hnalu_sps v :: sps_rest) pps vc sc pc inc
  = Ok (expected_hconf v vps (hnalu_sps v :: sps_rest) pps vc sc pc inc).
Proof.
  intros Hp. unfold hconf_create. rewrite Hp. unfold expected_hconf. cbv zeta.
  rewrite !hconf_array_eq by lia.
  reflexivity.
Qed.

(* ------------------------------------------------------------------ math/bits.Reverse32 *)
Lemma rev_bits_bval n : forall x, rev_bits n x = bval (rev (ubits n x)).
Proof.
  induction n as [|k IH]; intros x.
  - reflexivity.
  - cbn [rev_bits]. replace (ubits (S k) x) with (ubits (k + 1) x) by (f_equal; lia).
    rewrite ubits_split, rev_app_distr. cbn [ubits rev app].
    rewrite bval_cons, rev_length, ubits_length, b2n_testbit, IH.
    change (N.of_nat 0) with 0. change (N.of_nat 1) with 1.
    rewrite N.pow_0_r, N.pow_1_r, N.div_1_r. reflexivity.
Qed.

(* ------------------------------------------------------------------ bits -> bytes *)
Lemma bytes_of_bits_u32 a rest :
  bytes_of_bits (u 32 a ++ rest)
  = u8 (a / 16777216) :: u8 (a / 65536) :: u8 (a / 256) :: u8 a :: bytes_of_bits rest.
Proof.
  rewrite (u_split 16 16 a : u 32 a = _), <- app_assoc, !bytes_of_bits_u16.
  change (2 ^ 16) with 65536. rewrite N.div_div by discriminate. reflexivity.
Qed.

Lemma bytes_of_bits_u48 a rest :
  bytes_of_bits (u 48 a ++ rest)
  = u8 (a / 1099511627776) :: u8 (a / 4294967296) :: u8 (a / 16777216) :: u8 (a / 65536)
    :: u8 (a / 256) :: u8 a :: bytes_of_bits rest.
Proof.
  rewrite (u_split 16 32 a : u 48 a = _), <- app_assoc, bytes_of_bits_u16, bytes_of_bits_u32.
  change (2 ^ 32) with 4294967296. rewrite N.div_div by discriminate. reflexivity.
Qed.

(* ------------------------------------------------------------------ the constraint bytes of the codec string *)
Definition cbyte (c : N) (j : nat) : N := N.land (N.shiftr c (8 * N.of_nat j)) 255.
Definition cdot (b : N) : list N := [46] ++ digits 16 b.

Lemma constraint_bytes_map c : forall k,
  constraint_bytes k c = flat_map cdot (map (cbyte c) (rev (seq 0 k))).
Proof.
  induction k as [|j IH]; [reflexivity|].
  rewrite seq_S, rev_app_distr. cbn [constraint_bytes rev app map flat_map Nat.add]. rewrite IH.
  unfold cdot, cbyte. cbn [app]. reflexivity.
Qed.

Lemma cbyte_shift c j : cbyte (N.shiftr c 8) j = cbyte c (S j).
Proof. unfold cbyte. rewrite N.shiftr_shiftr. do 2 f_equal. lia. Qed.

Lemma cbyte_0 c : cbyte c 0 = N.land c 255.
Proof. unfold cbyte. change (8 * N.of_nat 0) with 0. rewrite N.shiftr_0_r. reflexivity. Qed.

Lemma cbyte_u8 c j : cbyte c j = u8 (c / 2 ^ (8 * N.of_nat j)).
Proof. unfold cbyte. rewrite land_255, shiftr_div. reflexivity. Qed.

(* the strip loop keeps the most significant byte and drops the zero bytes below it from the least
   significant end *)
Lemma strip_spec : forall k c,
  let '(c', nr) := strip_zero_bytes k c (N.of_nat (S k)) in
  map (cbyte c') (rev (seq 0 (N.to_nat nr)))
  = cbyte c k :: rev (drop_zero_bytes (map (cbyte c) (seq 0 k))).
Proof.
  induction k as [|k IH]; intros c.
  - reflexivity.
  - cbn [strip_zero_bytes].
    destruct (N.land c 255 =? 0) eqn:E.
    + replace (N.of_nat (S (S k)) - 1) with (N.of_nat (S k)) by lia.
      specialize (IH (N.shiftr c 8)).
      destruct (strip_zero_bytes k (N.shiftr c 8) (N.of_nat (S k))) as [c' nr].
      rewrite IH, cbyte_shift. f_equal. f_equal.
      cbn [seq map]. rewrite cbyte_0. apply N.eqb_eq in E. rewrite E. cbn [drop_zero_bytes].
      rewrite <- seq_shift, map_map. f_equal. apply map_ext. intros j. apply cbyte_shift.
    + rewrite Nat2N.id, seq_S, rev_app_distr. cbn [rev app map Nat.add].
      f_equal. rewrite map_rev. f_equal.
      cbn [seq map]. rewrite cbyte_0.
      destruct (N.land c 255) as [|p]; [discriminate|]. reflexivity.
Qed.

(* ------------------------------------------------------------------ hevc.CodecString *)
Lemma space_char_eq x :
  (if x =? 1 then [65] else if x =? 2 then [66] else if x =? 3 then [67] else [])
  = match x with 1 => [65] | 2 => [66] | 3 => [67] | _ => ([] : list N) end.
Proof. destruct x as [|[[p|p|]|[p|p|]|]]; reflexivity. Qed.

Lemma hevc_codec_string entry v :
  hsps_valid v = true -> hcodec_string entry (expected_hsps v) = spec_hcodec_string entry v.
Proof.
  intros Hv. destruct (hsps_valid_conf v Hv) as (Hs & Hi & Hc & H43 & Hl & Hch). cbv zeta in *.
  destruct (constraint48_bits _ H43) as [Hbits H48].
  unfold hcodec_string, spec_hcodec_string. cbv zeta.
  change (h_ptl (expected_hsps v)) with (expected_hptl (sx_sps_ptl v)).
  unfold expected_hptl. cbn [hp_space hp_tier hp_idc hp_compat hp_constraint hp_level].
  set (g := sx_general (sx_sps_ptl v)) in *.
  pose proof (strip_spec 5 (constraint48 g)) as HS.
  change (N.of_nat 6) with 6 in HS.
  destruct (strip_zero_bytes 5 (constraint48 g) 6) as [c' nr].
  rewrite constraint_bytes_map, HS.
  rewrite space_char_eq, rev_bits_bval.
  unfold hprofile_constraint_bits. rewrite Hbits.
  rewrite <- (app_nil_r (u 48 _)), bytes_of_bits_u48. cbn [bytes_of_bits hd tl rev app seq map].
  set (c := constraint48 g) in *.
  rewrite (cbyte_u8 c 5 : cbyte c 5 = u8 (c / 1099511627776)).
  rewrite (cbyte_u8 c 4 : cbyte c 4 = u8 (c / 4294967296)).
  rewrite (cbyte_u8 c 3 : cbyte c 3 = u8 (c / 16777216)).
  rewrite (cbyte_u8 c 2 : cbyte c 2 = u8 (c / 65536)).
  rewrite (cbyte_u8 c 1 : cbyte c 1 = u8 (c / 256)).
  rewrite (cbyte_u8 c 0 : cbyte c 0 = u8 (c / 1)), N.div_1_r.
  fold cdot. change (fun b : N => [46] ++ digits 16 b) with cdot.
  rewrite <- !app_assoc. reflexivity.
Qed.
