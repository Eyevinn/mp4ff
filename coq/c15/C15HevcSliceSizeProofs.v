(* C15HevcSliceSizeProofs.v — the slice segment header of a valid slice is short: the number of bytes
   it occupies in the escaped NAL unit fits uint32 (Size is stored as uint32(r.NrBytesRead())). *)
From V.lib Require Import Base.
From V.c13 Require Import C13Spec C13Model.
From V.c15 Require Import C15Model C15Spec C15BitProofs C15AvcSpsProofs C15AvcPpsProofs
  C15HevcModel C15HevcSpec C15HevcBitProofs C15HevcSpsRpsProofs C15HevcPpsProofs C15HevcSliceBaseProofs
  C15HevcSliceRpsProofs C15HevcSliceInterProofs.

Section NoDivision.
(* nothing in this section divides: lia without its preprocessing of / and mod, which visits every
   hypothesis at every call (dlia, C15HevcBitProofs, is lia with that step) *)
Ltac Zify.zify_convert_to_euclidean_division_equations_flag ::= constr:(false).

Lemma hescape_from_len : forall l z, lenN (escape_from z l) <= 2 * lenN l.
Proof.
  induction l as [|b t IH]; intros z; cbn [escape_from].
  - rewrite lenN_nil. lia.
  - destruct ((z =? 2) && (b <=? 3)); rewrite !lenN_cons;
      match goal with |- context [escape_from ?z' t] => specialize (IH z') end; lia.
Qed.

Lemma hnbytes_at_le raw bits : nbytes_at raw bits <= 2 * ((bits + 7) / 8).
Proof.
  unfold nbytes_at, escape.
  eapply N.le_trans; [apply hescape_from_len|].
  unfold lenN. rewrite firstn_length. lia.
Qed.

Lemma hlen_ue_le v : v < 4294967295 -> lenN (ue_bits v) <= 63.
Proof.
  intros H. rewrite lenN_ue_bits.
  assert (N.log2 (v + 1) < 32); [|lia].
  apply N.log2_lt_pow2; [lia|]. change (2 ^ 32) with 4294967296. lia.
Qed.

Lemma hlen_se_le k : se_ok k = true -> lenN (se_bits k) <= 63.
Proof.
  unfold se_ok, int32_ok, se_bits. intros H. apply hlen_ue_le.
  destruct k as [|q|q]; cbn [se_code]; lia.
Qed.

Lemma i8_se_ok k : i8_ok k = true -> se_ok k = true.
Proof. unfold i8_ok, se_ok, int32_ok. lia. Qed.

Lemma hlen_opt_le (c : bool) (e : list bool) b : (c = true -> lenN e <= b) -> lenN (opt_bits c e) <= b.
Proof. destruct c; cbn [opt_bits]; intros H; [apply H; reflexivity | rewrite lenN_nil; lia]. Qed.

Lemma hlen_app_le {A} (a b : list A) x y : lenN a <= x -> lenN b <= y -> lenN (a ++ b) <= x + y.
Proof. intros. rewrite lenN_app. lia. Qed.

Lemma hlen_flat_map_le {X} (f : X -> list bool) c : forall l,
  (forall x, In x l -> lenN (f x) <= c) -> lenN (flat_map f l) <= c * lenN l.
Proof.
  induction l as [|x t IH]; intros H; cbn [flat_map].
  - rewrite lenN_nil. lia.
  - rewrite lenN_app, lenN_cons.
    assert (lenN (f x) <= c) by (apply H; left; reflexivity).
    assert (lenN (flat_map f t) <= c * lenN t) by (apply IH; intros; apply H; right; assumption).
    lia.
Qed.

Lemma hlen_flat_u n (l : list N) : lenN (flat_map (u n) l) <= n * lenN l.
Proof. apply hlen_flat_map_le. intros. rewrite lenN_u. lia. Qed.

(* structural bounding: sums the bounds of the parts *)
Ltac lb :=
  lazymatch goal with
  | |- lenN (_ ++ _) <= _ => eapply hlen_app_le; [lb | lb]
  | |- lenN (opt_bits _ _) <= _ => apply hlen_opt_le; intros _; lb
  | |- lenN (fl _) <= _ => rewrite lenN_fl; apply N.le_refl
  | |- lenN (u _ _) <= _ => rewrite lenN_u; apply N.le_refl
  | |- lenN (ue_bits _) <= _ => apply hlen_ue_le; lia
  | |- lenN (se_bits _) <= _ => apply hlen_se_le; first [assumption | apply i8_se_ok; assumption]
  | |- _ => idtac
  end.

Lemma log2_up_le32 n : n <= 4294967296 -> N.log2_up n <= 32.
Proof.
  intros H. destruct (N.eq_dec n 0) as [-> | Hn]; [cbn; lia|].
  apply N.log2_up_le_pow2; [lia|]. change (2 ^ 32) with 4294967296. exact H.
Qed.

(* ------------------------------------------------------------------ st_ref_pic_set *)
Lemma len_hrps_le prev idx num r :
  (forall d, In d prev -> d_num_delta d <= 32) -> hrps_valid prev idx num r = true -> idx <= 64 ->
  lenN (ser_hrps idx num r) <= 3000.
Proof.
  intros Hprev Hv Hidx. destruct r as [neg ps | di sg ab fls]; cbn [hrps_valid ser_hrps] in *.
  - split_all. unfold max_st_pics in *.
    assert (H1 : lenN (flat_map (fun e : N * bool => ue_bits (fst e) ++ fl (snd e)) neg) <= 64 * lenN neg).
    { apply hlen_flat_map_le. intros e Hin.
      match goal with H : forallb _ neg = true |- _ => rewrite forallb_forall in H; specialize (H e Hin) end.
      eapply N.le_trans; [lb|]. lia. }
    assert (H2 : lenN (flat_map (fun e : N * bool => ue_bits (fst e) ++ fl (snd e)) ps) <= 64 * lenN ps).
    { apply hlen_flat_map_le. intros e Hin.
      match goal with H : forallb _ ps = true |- _ => rewrite forallb_forall in H; specialize (H e Hin) end.
      eapply N.le_trans; [lb|]. lia. }
    eapply N.le_trans; [lb; [exact H1 | exact H2]|]. lia.
  - cbv zeta in Hv. split_all. unfold max_st_pics in *.
    set (ref := nth (N.to_nat (idx - (di + 1))) prev (mkRpsD [] [])) in *.
    assert (Hr : d_num_delta ref <= 32).
    { unfold ref. destruct (nth_in_or_default (N.to_nat (idx - (di + 1))) prev (mkRpsD [] [])) as [Hin | ->].
      - apply Hprev. exact Hin.
      - unfold d_num_delta. cbn. lia. }
    assert (H1 : lenN (flat_map (fun e : bool * bool => fl (fst e) ++ opt_bits (negb (fst e)) (fl (snd e))) fls)
                 <= 2 * lenN fls).
    { apply hlen_flat_map_le. intros e Hin. eapply N.le_trans; [lb|]. lia. }
    eapply N.le_trans; [lb; exact H1|]. lia.
Qed.

Lemma sps_derived_le32 sp : hsps_valid sp = true -> forall d, In d (hs_sps_derived sp) -> d_num_delta d <= 32.
Proof.
  intros Hs. destruct (sps_sets_rel sp Hs) as [Hrel _].
  induction Hrel as [|a d la ld Had Hrel IH]; intros d' Hin; [destruct Hin|].
  destruct Hin as [<- | Hin]; [apply Had | apply IH; exact Hin].
Qed.

(* the same, keeping the conditions of optional parts and closing leaves with bounds from the context *)
Ltac lbc :=
  lazymatch goal with
  | |- lenN (_ ++ _) <= _ => eapply hlen_app_le; [lbc | lbc]
  | |- lenN (opt_bits _ _) <= _ => apply hlen_opt_le; intro; lbc
  | |- lenN (fl _) <= _ => rewrite lenN_fl; apply N.le_refl
  | |- lenN (u _ _) <= _ => rewrite lenN_u; apply N.le_refl
  | |- lenN (ue_bits _) <= _ => apply hlen_ue_le; lia
  | |- lenN (se_bits _) <= _ => apply hlen_se_le; first [assumption | apply i8_se_ok; assumption]
  | |- lenN ?X <= _ =>
      first [ eassumption
            | match goal with
              | H : _ -> lenN X <= _ |- _ => eapply H; eassumption
              | H : _ -> _ -> lenN X <= _ |- _ => eapply H; eassumption
              | H : _ -> _ -> _ -> lenN X <= _ |- _ => eapply H; eassumption
              end ]
  end.

(* ------------------------------------------------------------------ long-term entries *)
Lemma len_lt_le sp pp v : hsps_valid sp = true -> hslice_valid sp pp v = true ->
  lenN (ser_hslice_lt sp pp v) <= 6000.
Proof.
  intros Hs Hv.
  destruct (hsps_valid_poc_lt sp Hs) as [Hp Hn32].
  assert (H16 : hs_poc_bits sp <= 16) by (unfold hs_poc_bits; lia).
  assert (H32 : hs_lt_idx_bits sp <= 32) by (unfold hs_lt_idx_bits; apply log2_up_le32; lia).
  unfold hslice_valid in Hv. split_all. unfold ser_hslice_lt.
  set (E1 := hs_lt_sps_entries sp pp v) in *. set (E2 := hs_lt_pics_entries sp pp v) in *.
  assert (H1 : lenN (flat_map (fun e : N * bool * N => let '(ix, msb, cyc) := e in
                          opt_bits (1 <? hs_num_lt_sps_in_sps sp) (u (hs_lt_idx_bits sp) ix)
                          ++ fl msb ++ opt_bits msb (ue_bits cyc)) E1) <= 96 * lenN E1).
  { apply hlen_flat_map_le. intros [[ix msb] cyc] Hin.
    match goal with H : forallb _ E1 = true |- _ => rewrite forallb_forall in H; specialize (H _ Hin);
      cbv beta iota in H; apply andb_prop in H; destruct H as [Hix Hc] end.
    unfold ue_ok in Hc. eapply N.le_trans; [lb|]. lia. }
  assert (H2 : lenN (flat_map (fun e : N * bool * bool * N => let '(poc, used, msb, cyc) := e in
                          u (hs_poc_bits sp) poc ++ fl used ++ fl msb ++ opt_bits msb (ue_bits cyc)) E2)
               <= 81 * lenN E2).
  { apply hlen_flat_map_le. intros [[[poc used] msb] cyc] Hin.
    match goal with H : forallb _ E2 = true |- _ => rewrite forallb_forall in H; specialize (H _ Hin);
      cbv beta iota in H; apply andb_prop in H; destruct H as [Hix Hc] end.
    unfold ue_ok in Hc. eapply N.le_trans; [lb|]. lia. }
  eapply N.le_trans; [lbc|]. lia.
Qed.

(* ------------------------------------------------------------------ pred_weight_table *)
Lemma len_pwt_list_le sp (lst : list hpwt) : lenN lst <= 15 -> forallb hpwt_ok lst = true ->
  lenN (ser_hpwt_list sp lst) <= 6000.
Proof.
  intros Hl Hok. unfold ser_hpwt_list.
  assert (H1 : lenN (flat_map (fun e => fl (pw_luma_flag e)) lst) <= 1 * lenN lst)
    by (apply hlen_flat_map_le; intros; rewrite lenN_fl; lia).
  assert (H2 : lenN (flat_map (fun e => fl (pw_chroma_flag e)) lst) <= 1 * lenN lst)
    by (apply hlen_flat_map_le; intros; rewrite lenN_fl; lia).
  assert (H3 : lenN (flat_map (fun e =>
                   opt_bits (pw_luma_flag e) (se_bits (pw_dlw e) ++ se_bits (pw_lo e))
                   ++ opt_bits (hs_cat_nz sp && pw_chroma_flag e)
                        (se_bits (pw_dcw0 e) ++ se_bits (pw_dco0 e) ++ se_bits (pw_dcw1 e) ++ se_bits (pw_dco1 e)))
                   lst) <= 378 * lenN lst).
  { apply hlen_flat_map_le. intros e Hin. rewrite forallb_forall in Hok. specialize (Hok e Hin).
    unfold hpwt_ok in Hok. split_all. eapply N.le_trans; [lb|]. lia. }
  eapply N.le_trans; [lbc|]. lia.
Qed.

(* ------------------------------------------------------------------ inter block *)
Lemma len_inter_le sp pp v : hpps_valid pp = true -> hslice_valid sp pp v = true ->
  lenN (ser_hslice_inter sp pp v) <= 20000.
Proof.
  intros Hp Hv.
  destruct (hs_l01_le14 sp pp v Hp Hv) as [Hl0 Hl1].
  unfold hslice_valid in Hv. split_all.
  assert (Hb : hs_list_entry_bits sp pp v <= 32) by (unfold hs_list_entry_bits; apply log2_up_le32; lia).
  assert (R0 : hs_rplm sp pp v = true -> sx_ref_pic_list_modification_flag_l0 v = true ->
               lenN (flat_map (u (hs_list_entry_bits sp pp v)) (sx_list_entry_l0 v)) <= 32 * 15).
  { intros Hr Hf.
    match goal with H : (if hs_rplm sp pp v && sx_ref_pic_list_modification_flag_l0 v then _ else true) = true |- _ =>
      rewrite Hr, Hf in H; cbn [andb] in H; apply andb_prop in H; destruct H as [Hlen _] end.
    eapply N.le_trans; [apply hlen_flat_u|]. apply N.mul_le_mono; lia. }
  assert (R1 : hs_rplm sp pp v = true -> hs_is_b pp v = true -> sx_ref_pic_list_modification_flag_l1 v = true ->
               lenN (flat_map (u (hs_list_entry_bits sp pp v)) (sx_list_entry_l1 v)) <= 32 * 15).
  { intros Hr Hbb Hf.
    match goal with H : (if hs_rplm sp pp v && hs_is_b pp v && sx_ref_pic_list_modification_flag_l1 v then _ else true) = true |- _ =>
      rewrite Hr, Hbb, Hf in H; cbn [andb] in H; apply andb_prop in H; destruct H as [Hlen _] end.
    eapply N.le_trans; [apply hlen_flat_u|]. apply N.mul_le_mono; lia. }
  assert (W0 : hs_pwt pp v = true -> lenN (ser_hpwt_list sp (sx_pwt_l0 v)) <= 6000).
  { intros Hw.
    match goal with H : (if hs_pwt pp v then _ else true) = true |- _ => rewrite Hw in H; split_all end.
    apply len_pwt_list_le; [lia | assumption]. }
  assert (W1 : hs_pwt pp v = true -> hs_is_b pp v = true -> lenN (ser_hpwt_list sp (sx_pwt_l1 v)) <= 6000).
  { intros Hw Hbb.
    match goal with H : (if hs_pwt pp v then _ else true) = true |- _ => rewrite Hw, Hbb in H; split_all end.
    apply len_pwt_list_le; [lia | assumption]. }
  unfold ser_hslice_inter.
  eapply N.le_trans; [lbc|]. lia.
Qed.

(* ------------------------------------------------------------------ the non-dependent block *)
Lemma len_main_le sp pp v :
  hsps_valid sp = true -> hpps_valid pp = true -> hslice_valid sp pp v = true -> hs_main pp v = true ->
  lenN (ser_hslice_main sp pp v) <= 40000.
Proof.
  intros Hs Hp Hv Hm.
  pose proof (len_inter_le sp pp v Hp Hv) as Hinter.
  pose proof (len_lt_le sp pp v Hs Hv) as Hlt.
  destruct (hsps_valid_poc_lt sp Hs) as [Hpl _]. destruct (hpps_valid_ids pp Hp) as [_ Hx].
  assert (Hpb : hs_poc_bits sp <= 16) by (unfold hs_poc_bits; lia).
  destruct (sps_sets_rel sp Hs) as [_ H64].
  assert (Hrp : negb (hs_idr v) = true ->
                lenN (if sx_short_term_ref_pic_set_sps_flag v
                      then opt_bits (1 <? hs_num_st sp)
                                    (u (N.log2_up (hs_num_st sp)) (sx_short_term_ref_pic_set_idx v))
                      else ser_hrps (hs_num_st sp) (hs_num_st sp) (sx_slice_st_rps v)) <= 3000).
  { intros Hi. destruct (sx_short_term_ref_pic_set_sps_flag v) eqn:Hf.
    - assert (N.log2_up (hs_num_st sp) <= 32) by (apply log2_up_le32; lia).
      eapply N.le_trans; [lb|]. lia.
    - apply (len_hrps_le (hs_sps_derived sp)); [apply sps_derived_le32; exact Hs | | exact H64].
      unfold hslice_valid in Hv. split_all.
      match goal with H : (if hs_st_coded pp v then _ else true) = true |- _ =>
        unfold hs_st_coded, hs_nidr in H; rewrite Hm, Hi, Hf in H; exact H end. }
  unfold hslice_valid in Hv. split_all.
  assert (Hres : lenN (sx_slice_reserved_flags v) <= 8) by lia.
  unfold ser_hslice_main.
  eapply N.le_trans; [lbc|]. lia.
Qed.

(* ------------------------------------------------------------------ the header *)
Lemma len_hdr_le sp pp v :
  hsps_valid sp = true -> hpps_valid pp = true -> hslice_valid sp pp v = true ->
  lenN (hslice_hdr_bits sp pp v) <= 200000.
Proof.
  intros Hs Hp Hv.
  assert (Hmain : hs_main pp v = true -> lenN (ser_hslice_main sp pp v) <= 40000)
    by (intros Hm; apply len_main_le; assumption).
  destruct (hslice_ctb sp Hs) as (_ & _ & _ & _ & C5).
  assert (Ha : hs_address_bits sp <= 32)
    by (unfold hs_address_bits; apply log2_up_le32; change (2 ^ 32) with 4294967296 in C5; exact C5).
  unfold hslice_valid in Hv. split_all.
  assert (Hid : sx_slice_pic_parameter_set_id v <= 63) by (destruct (hpps_valid_ids pp Hp); lia).
  assert (Hh : lenN (hnal_header (hs_nt v) (sx_sl_nuh_layer_id v) (sx_sl_nuh_temporal_id_plus1 v)) <= 16)
    by (unfold hnal_header; rewrite !lenN_app, !lenN_u; cbn; lia).
  assert (He : lenN (flat_map (u (sx_offset_len_minus1 v + 1)) (sx_entry_point_offset_minus1 v)) <= 32 * 2048)
    by (eapply N.le_trans; [apply hlen_flat_u|]; apply N.mul_le_mono; lia).
  assert (Hx : lenN (flat_map (u 8) (sx_slice_segment_header_extension_data v)) <= 8 * 256)
    by (eapply N.le_trans; [apply hlen_flat_u|]; apply N.mul_le_mono; lia).
  unfold hslice_hdr_bits, ser_hslice_header.
  eapply N.le_trans; [lbc|]. lia.
Qed.

Lemma hslice_size_lt sp pp v :
  hsps_valid sp = true -> hpps_valid pp = true -> hslice_valid sp pp v = true ->
  nbytes_at (hraw_slice sp pp v) (hslice_size_bits sp pp v) < 4294967296.
Proof.
  intros Hs Hp Hv.
  pose proof (len_hdr_le sp pp v Hs Hp Hv) as H.
  pose proof (hnbytes_at_le (hraw_slice sp pp v) (hslice_size_bits sp pp v)) as Hn.
  assert (Hb : hslice_size_bits sp pp v <= 200008).
  { unfold hslice_size_bits, trailing_bits. rewrite lenN_cons, lenN_repeat, N2Nat.id. dlia. }
  dlia.
Qed.

End NoDivision.
