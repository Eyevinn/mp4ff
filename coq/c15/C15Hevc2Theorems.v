(* C15Hevc2Theorems.v — property C15 for the HEVC PPS with the multilayer extension (reference location
   offsets, colour mapping table with the octant tree) and the 3D extension (depth lookup tables): the
   parser model of hevc.ParsePPSNALUnit (C15Hevc2Model.hparse_pps2, the text of hparse_pps with the two
   extension branches of hevc/pps.go filled in) returns the values that the independent serialiser of
   ISO/IEC 23008-2 F.7.3.2.3.4-6 / I.7.3.2.3.7-8 coded. *)
From V.lib Require Import Base.
From V.c13 Require Import C13Spec C13Model.
From V.c15 Require Import C15Model C15Spec C15HevcModel C15HevcSpec C15Hevc2Model C15Hevc2Spec C15Hevc2Proofs
  C15Hevc2PpsProofs C15Hevc2Examples C15TieBaseProofs C15TieHevc2Proofs C15TieMainProofs.

(* every PPS accepted by hpps2_valid: everything C15_hevc_pps covers (hpps_valid of the part without the
   two flags) plus, when pps_multilayer_extension_flag / pps_3d_extension_flag are set, any number of
   reference location offsets, a colour mapping table with an octant tree of any shape within
   cm_octant_depth <= 3, any depth-layer list with value flags or delta_dlt() *)
Theorem C15_hevc_pps_ext : forall spsmap x,
  hpps2_valid x = true -> spsmap (sx_pps_seq_parameter_set_id (sx2_base x)) = true ->
  hparse_pps2_br spsmap (hnalu_pps2 x) = Ok (expected_hpps2 x).
Proof. exact hevc_pps2. Qed.
Print Assumptions C15_hevc_pps_ext.

Example C15_hevc_pps_ext_hyp :
  hpps2_valid ex_hpps2 = true
  /\ hparse_pps2_br (fun id => id =? 3) (hnalu_pps2 ex_hpps2) = Ok (expected_hpps2 ex_hpps2)
  /\ option_map (fun m => option_map (fun c => lenN (cm_octants c)) (ml_cm m)) (p2_ml (expected_hpps2 ex_hpps2))
     = Some (Some 16)
  /\ option_map (fun m => map rl_layer_id (ml_ref_loc m)) (p2_ml (expected_hpps2 ex_hpps2)) = Some [2; 7]
  /\ option_map (fun d => map (fun l => option_map dd_diffs (dl_delta l)) (d3_layers d)) (p2_3d (expected_hpps2 ex_hpps2))
     = Some [Some [6; 0; 3; 5]; None; None; Some []].
Proof.
  assert (Hv : hpps2_valid ex_hpps2 = true) by (vm_compute; reflexivity).
  split; [exact Hv|]. split; [apply hevc_pps2; [exact Hv | reflexivity]|].
  vm_compute. repeat split; reflexivity.
Qed.

(* the reader tie for this parser: every escaped byte string (zrun_ok: see C15TieTheorems.v) *)
Theorem C15_reader_tie_hevc_pps_ext : forall raw spsmap,
  bytes_ok raw = true -> zrun_ok raw = true ->
  hparse_pps2_er spsmap (escape raw) = hparse_pps2_br spsmap (escape raw).
Proof. exact tie_hevc_pps2. Qed.
Print Assumptions C15_reader_tie_hevc_pps_ext.

(* for the EBSP-reader instance, on the bytes after emulation prevention *)
Theorem C15_hevc_pps_ext_er : forall spsmap x,
  hpps2_valid x = true -> spsmap (sx_pps_seq_parameter_set_id (sx2_base x)) = true ->
  zrun_ok (hraw_pps2 x) = true ->
  hparse_pps2_er spsmap (hnalu_pps2 x) = Ok (expected_hpps2 x).
Proof. exact hevc_pps2_er. Qed.
Print Assumptions C15_hevc_pps_ext_er.
Example C15_hevc_pps_ext_er_hyp :
  zrun_ok (hraw_pps2 ex_hpps2) = true /\ lenN (hnalu_pps2 ex_hpps2) = 212.
Proof. vm_compute. repeat split; reflexivity. Qed.
