(* C15SliceMapsProofs.v — the slice-header parsers (models of avc.ParseSliceHeader and
   hevc.ParseSliceHeader) depend on the parse history only through the CONTENTS of the two maps they
   are handed: two pairs of maps that agree pointwise give the same result on every reader state.
   (In the models a parsed PPS is a plain record without any reference to an SPS, and the parsers take
   the maps as arguments; these lemmas state that nothing else is consulted.)  For any reader instance. *)
From V.lib Require Import Base.
From V.c13 Require Import C13Spec C13Model.
From V.c15 Require Import C15Model C15HevcModel C15BitProofs.

Lemma avc_slice_maps_only {St} (R : reader St) sm sm' pm pm' (s : St) :
  (forall id, pm id = pm' id) -> (forall id, sm id = sm' id) ->
  parse_slice_header R sm pm s = parse_slice_header R sm' pm' s.
Proof.
  intros Hp Hs. unfold parse_slice_header.
  apply bind_ext. intros hdr s1 _. cbv beta iota zeta.
  match goal with |- (if ?c then _ else _) _ = _ => destruct c; [reflexivity|] end.
  apply bind_ext. intros fm s2 _.
  apply bind_ext. intros st s3 _.
  apply bind_ext. intros pid s4 _.
  rewrite Hp. destruct (pm' (u32 pid)) as [pp|]; [|reflexivity].
  rewrite Hs. reflexivity.
Qed.

Lemma hevc_slice_maps_only {St} (R : reader St) (bib : St -> N) sm sm' pm pm' (s : St) :
  (forall id, pm id = pm' id) -> (forall id, sm id = sm' id) ->
  hparse_slice R bib sm pm s = hparse_slice R bib sm' pm' s.
Proof.
  intros Hp Hs. unfold hparse_slice.
  apply bind_ext. intros hdr s1 _. cbv beta iota zeta.
  apply bind_ext. intros first s2 _.
  apply bind_ext. intros nop s3 _.
  apply bind_ext. intros pid s4 _.
  rewrite Hp. destruct (pm' (u32 pid)) as [pp|]; [|reflexivity].
  rewrite Hs. reflexivity.
Qed.
