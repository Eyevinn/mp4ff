(* C15TieAvc2Proofs.v — the reader tie for the repaired avc.ParseSliceHeader (C15Avc2Model.parse_slice_header2)
   and the slice theorem for the EBSP-reader instance.  No axioms. *)
From V.lib Require Import Base.
From V.c13 Require Import C13Spec C13Model C13ReaderProofs.
From V.c15 Require Import C15Model C15Spec C15BitProofs C15Avc2Model C15Avc2DimsProofs C15Avc2Proofs
  C15TieBaseProofs C15TieRelProofs C15TieAvcProofs C15TieMainProofs.

Section Avc2.
  Variable raw : list N.
  Hypothesis raw_ok : Forall lt256 raw.

  Ltac tie_sub ::= first [ apply rel_rplm | apply rel_mmco | apply rel_pwt_entry ].
  Ltac tie_rd_side ::=
    first [ tie_width | (eapply sps_narrow_w1; eassumption) | (eapply sps_narrow_w2; eassumption) ].

  Lemma rel_parse_slice2 spsmap ppsmap :
    (forall id s, spsmap id = Some s -> sps_narrow s = true) ->
    MRel raw true true (parse_slice_header2 ER spsmap ppsmap) (parse_slice_header2 BR spsmap ppsmap).
  Proof. intros Hs. unfold parse_slice_header2. tie. Qed.
End Avc2.

Lemma tie_avc_slice2 raw spsmap ppsmap :
  bytes_ok raw = true -> zrun_ok raw = true ->
  (forall id s, spsmap id = Some s -> sps_narrow s = true) ->
  parse_slice2_er spsmap ppsmap (escape raw) = parse_slice2_br spsmap ppsmap (escape raw).
Proof.
  intros Hb Hz Hs. unfold parse_slice2_er, parse_slice2_br.
  apply (MRel_run raw (bytes_ok_lt256 raw Hb) true true); [apply rel_parse_slice2; assumption|exact Hz].
Qed.

Lemma avc_slice2_er spsmap ppsmap sp pp v beyond cm s p :
  sps_valid sp = true -> pps_valid (eff_chroma_format_idc sp) pp = true -> slice_valid sp pp v = true ->
  pic_size_in_map_units sp < 4294967296 ->
  (pps_has_tail pp && pic_scaling_matrix_present_flag pp = true ->
   cm (pps_seq_parameter_set_id pp) = Some (eff_chroma_format_idc sp)) ->
  zrun_ok (raw_sps sp) = true -> zrun_ok (raw_pps pp) = true -> zrun_ok (raw_slice sp pp v) = true ->
  (forall id x, spsmap id = Some x -> sps_narrow x = true) ->
  parse_sps_er beyond (nalu_sps sp) = Ok s -> parse_pps_er cm (nalu_pps pp) = Ok p ->
  ppsmap (sl_pic_parameter_set_id v) = Some p -> spsmap (pps_seq_parameter_set_id pp) = Some s ->
  parse_slice2_er spsmap ppsmap (nalu_slice sp pp v) = Ok (expected_slice sp pp v).
Proof.
  intros Hs Hp Hv Hps Hm Z1 Z2 Z3 N1 Es Ep Mp Ms.
  rewrite <- (avc_slice2 spsmap ppsmap sp pp v beyond cm s p Hs Hp Hv Hps Hm
                (sps_er_br sp beyond s Z1 Es) (pps_er_br pp cm p Z2 Ep) Mp Ms).
  exact (tie_avc_slice2 (raw_slice sp pp v) spsmap ppsmap (raw_nalu_ok _ _ _) Z3 N1).
Qed.
