(* C15Hevc2PpsProofs.v — hevc.ParsePPSNALUnit with the multilayer and 3D extensions: the parser model
   hparse_pps2 over the ideal bit reader, applied to the NAL unit produced by the independent serialiser
   of C15Hevc2Spec, returns the coded values (the script of C15HevcPpsProofs.hevc_pps with the two
   extension payloads in place). *)
From V.lib Require Import Base.
From V.c13 Require Import C13Spec C13Model.
From V.c15 Require Import C15Model C15Spec C15BitProofs C15AvcSpsProofs C15AvcPpsProofs C15HevcModel C15HevcSpec C15HevcBitProofs
  C15HevcSpsPtlProofs C15HevcSpsExtProofs C15HevcPpsProofs C15Hevc2Model C15Hevc2Spec C15Hevc2Proofs.

Section NoDivision.
(* nothing in this section divides: lia without its preprocessing of / and mod, which visits every
   hypothesis at every call (dlia, C15HevcBitProofs, is lia with that step) *)
Ltac Zify.zify_convert_to_euclidean_division_equations_flag ::= constr:(false).

Ltac noext := cbn [hpps_no_ext sx_pps_nuh_layer_id sx_pps_nuh_temporal_id_plus1 sx_pps_pic_parameter_set_id sx_pps_seq_parameter_set_id sx_dependent_slice_segments_enabled_flag sx_output_flag_present_flag sx_num_extra_slice_header_bits sx_sign_data_hiding_enabled_flag sx_cabac_init_present_flag sx_num_ref_idx_l0_default_active_minus1 sx_num_ref_idx_l1_default_active_minus1 sx_init_qp_minus26 sx_constrained_intra_pred_flag sx_transform_skip_enabled_flag sx_cu_qp_delta_enabled_flag sx_diff_cu_qp_delta_depth sx_pps_cb_qp_offset sx_pps_cr_qp_offset sx_pps_slice_chroma_qp_offsets_present_flag sx_weighted_pred_flag sx_weighted_bipred_flag sx_transquant_bypass_enabled_flag sx_tiles_enabled_flag sx_entropy_coding_sync_enabled_flag sx_num_tile_columns_minus1 sx_num_tile_rows_minus1 sx_uniform_spacing_flag sx_column_width_minus1 sx_row_height_minus1 sx_loop_filter_across_tiles_enabled_flag sx_pps_loop_filter_across_slices_enabled_flag sx_deblocking_filter_control_present_flag sx_deblocking_filter_override_enabled_flag sx_pps_deblocking_filter_disabled_flag sx_pps_beta_offset_div2 sx_pps_tc_offset_div2 sx_pps_scaling_list_data_present_flag sx_pps_scaling_list sx_lists_modification_present_flag sx_log2_parallel_merge_level_minus2 sx_slice_segment_header_extension_present_flag sx_pps_extension_present_flag sx_pps_range_extension_flag sx_pps_multilayer_extension_flag sx_pps_3d_extension_flag sx_pps_scc_extension_flag sx_pps_extension_4bits sx_pps_range_extension sx_pps_scc_extension sx_pps_extension_data_flags] in *.

Lemma hevc_pps2 spsmap x :
  hpps2_valid x = true -> spsmap (sx_pps_seq_parameter_set_id (sx2_base x)) = true ->
  hparse_pps2_br spsmap (hnalu_pps2 x) = Ok (expected_hpps2 x).
Proof.
  intros Hv2 Hmap. set (v := sx2_base x) in *.
  unfold hpps2_valid in Hv2. fold v in Hv2.
  apply andb_true_iff in Hv2. destruct Hv2 as [Hv2 Hd3]. apply andb_true_iff in Hv2. destruct Hv2 as [Hv Hml].
  pose proof (parses_hpps_tiles (hraw_pps2 x) (hpps_no_ext v)) as Ptiles. cbv zeta in Ptiles.
  specialize (fun pos => Ptiles pos Hv).
  pose proof (parses_hpps_db (hraw_pps2 x) (hpps_no_ext v)) as Pdb. cbv zeta in Pdb.
  specialize (fun pos => Pdb pos Hv).
  unfold hpps_valid in Hv. cbv zeta in Hv. unfold hpps_ext_on, hpps_ext4 in Hv. noext. split_all.
  destruct (hnal_header_u16 34 (sx_pps_nuh_layer_id v) (sx_pps_nuh_temporal_id_plus1 v))
    as (Hh & Hlt & Hty); [lia | lia | lia |].
  unfold hparse_pps2_br, hnalu_pps2. fold v. rewrite binit_hnalu. fold v. fold (hraw_pps2 x).
  set (raw := hraw_pps2 x) in *.
  set (n := lenN (hnal_header 34 (sx_pps_nuh_layer_id v) (sx_pps_nuh_temporal_id_plus1 v) ++ ser_hpps2 x)).
  rewrite app_assoc.
  change (runs_to raw (hparse_pps2 BR spsmap) 0
            (hnal_header 34 (sx_pps_nuh_layer_id v) (sx_pps_nuh_temporal_id_plus1 v) ++ ser_hpps2 x)
            (trailing_bits n) (expected_hpps2 x)).
  rewrite Hh. unfold hparse_pps2, ser_hpps2. fold v. cbv zeta.
  rbind ltac:(apply parses_rd; exact Hlt).
  rewrite Hty. change (negb (34 =? 34)) with false. cbv iota.
  rreads.
  rewrite (u32_id (sx_pps_seq_parameter_set_id v)) by lia. rewrite Hmap. cbn [negb]. cbv iota.
  rreads.
  rbind ltac:(apply parses_rd; change (2 ^ 3) with 8; lia).
  rreads.
  rbind ltac:(apply Ptiles).
  rreads.
  rbind ltac:(apply Pdb).
  rread.
  rbind ltac:(apply (parses_opt raw _ (sx_pps_scaling_list_data_present_flag v) _ tt tt);
              intros Hs; apply parses_hskip_sl;
              match goal with H : (if sx_pps_scaling_list_data_present_flag v then _ else true) = true |- _ =>
                rewrite Hs in H; exact H end).
  rreads.
  rbind ltac:(apply parses_hpps_extflags; lia).
  rread.
  rbind ltac:(apply parses_opt_some; intros _; apply parses_hppsrange; [lia | lia | assumption]).
  rbind ltac:(apply parses_opt_some; intros Hc; apply parses_ppsml; rewrite Hc in Hml; exact Hml).
  rbind ltac:(apply parses_opt_some; intros Hc; apply parses_pps3d; rewrite Hc in Hd3; exact Hd3).
  rbind ltac:(apply parses_opt_some; intros _; apply parses_hppsscc; assumption).
  eapply runs_bind_t.
  { instantiate (1 := if 0 <? hpps_ext4 v then sx_pps_extension_data_flags v else []).
    destruct (0 <? hpps_ext4 v); cbn [opt_bits].
    - apply (hext_data_loop_ok raw n (sx_pps_extension_data_flags v) ext_fuel [] _).
      unfold ext_fuel, lenN in *. lia.
    - apply parses_t_ret. }
  rewrite hparse_end_ok. f_equal.
  unfold expected_hpps2, expected_hpps. fold v. cbv zeta. unfold hpps_ext_on, hpps_ext4. noext.
  cbn [pp_id pp_sps_id pp_dep_slices pp_output_flag_present pp_num_extra_bits pp_sign_hiding pp_cabac_init_present
       pp_l0 pp_l1 pp_init_qp pp_constrained_intra pp_transform_skip pp_cu_qp_delta pp_diff_cu_qp_delta_depth
       pp_cb_qp pp_cr_qp pp_slice_chroma_qp_present pp_weighted_pred pp_weighted_bipred pp_transquant_bypass
       pp_tiles pp_entropy_sync pp_tile_cols pp_tile_rows pp_uniform pp_col_widths pp_row_heights pp_lf_across_tiles
       pp_lf_across_slices pp_dbf_control pp_dbf_override_enabled pp_dbf_disabled pp_beta pp_tc pp_scaling_data
       pp_lists_mod pp_log2_par_merge pp_slice_ext_present pp_ext_present pp_range_flag pp_range pp_ml_flag
       pp_3d_flag pp_scc_flag pp_scc pp_ext4 pp_ext_data].
  rewrite (u32_id (sx_pps_pic_parameter_set_id v)) by lia.
  rewrite (u8_id (sx_num_extra_slice_header_bits v)) by lia.
  rewrite (u8_id (sx_num_ref_idx_l0_default_active_minus1 v)) by lia.
  rewrite (u8_id (sx_num_ref_idx_l1_default_active_minus1 v)) by lia.
  rewrite !i8_id by assumption.
  reflexivity.
Qed.

End NoDivision.
