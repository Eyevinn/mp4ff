(* C15AvcVuiProofs.v — parseVUI / parseHrdParameters (model, ideal bit reader) on the serialised
   vui_parameters() / hrd_parameters() return the coded values; the full AVC SPS lemma. *)
From V.lib Require Import Base.
From V.c13 Require Import C13Spec C13Model.
From V.c15 Require Import C15Model C15Spec C15BitProofs C15AvcSpsProofs.

Lemma parses_cpb raw (e : N * N * bool) pos :
  parses raw (parse_cpb_entry BR) pos (ser_cpb e) (let '(a, b, c) := e in mkCpb a b c).
Proof.
  destruct e as [[a b] c]. unfold parse_cpb_entry, ser_cpb. preads.
Qed.

Lemma parses_hrd raw h pos :
  hrd_valid h = true -> parses raw (parse_hrd BR) pos (ser_hrd h) (expected_hrd h).
Proof.
  intros Hv. unfold hrd_valid in Hv. split_all.
  unfold parse_hrd, ser_hrd, expected_hrd.
  preads.
  replace (31 <? cpb_cnt_minus1 h) with false by lia.
  pbind ltac:(apply parses_rd; lia).
  pbind ltac:(apply parses_rd; lia).
  pbind ltac:(apply (parses_rep_n raw (parse_cpb_entry BR) ser_cpb
                       (fun e : N * N * bool => let '(a, b, c) := e in mkCpb a b c) (cpb_list h));
              [lia | unfold loop_bound; lia | intros; apply parses_cpb]).
  pbind ltac:(apply parses_rd; lia).
  pbind ltac:(apply parses_rd; lia).
  pbind ltac:(apply parses_rd; lia).
  plast ltac:(apply parses_rd; lia).
  apply parses_ret.
Qed.

Lemma sar_table_agrees idc : idc <= 16 -> sar_from_idc idc = Some (sar_of_idc idc).
Proof.
  intros H.
  assert (C : idc = 0 \/ idc = 1 \/ idc = 2 \/ idc = 3 \/ idc = 4 \/ idc = 5 \/ idc = 6 \/ idc = 7
              \/ idc = 8 \/ idc = 9 \/ idc = 10 \/ idc = 11 \/ idc = 12 \/ idc = 13 \/ idc = 14
              \/ idc = 15 \/ idc = 16) by lia.
  repeat (destruct C as [-> | C]; [reflexivity|]). subst. reflexivity.
Qed.

Lemma parses_vui_sar raw x pos (B : Type) (k : N * N -> bstate -> res (B * bstate)) e b :
  vui_valid x = true ->
  parses raw (k (expected_sar x)) (pos + lenN (ser_vui_sar x)) e b ->
  parses raw
    (bind (rd_flag BR) (fun ar_present =>
     bind (if ar_present
           then bind (rd BR 8) (fun idc =>
                if idc =? 255 then bind (rd BR 16) (fun w => bind (rd BR 16) (fun h => ret (w, h)))
                else match sar_from_idc idc with
                     | Some wh => ret wh
                     | None => bind (set_err BR) (fun _ => ret (0, 0))
                     end)
           else ret (0, 0)) k)) pos (ser_vui_sar x ++ e) b.
Proof.
  intros Hv Hk. unfold vui_valid in Hv. split_all.
  unfold ser_vui_sar in *. rewrite <- app_assoc.
  preads.
  eapply parses_bind; [|rewrite lenN_app, N.add_assoc in Hk; exact Hk].
  unfold expected_sar.
  destruct (aspect_ratio_info_present_flag x); cbn [opt_bits]; [|apply parses_ret].
  pbind ltac:(apply parses_rd; lia).
  destruct (aspect_ratio_idc x =? 255) eqn:E; cbn [opt_bits].
  - pbind ltac:(apply parses_rd; lia). plast ltac:(apply parses_rd; lia). apply parses_ret.
  - rewrite sar_table_agrees by lia. apply parses_ret.
Qed.

Lemma parses_vui raw x beyond pos :
  vui_valid x = true ->
  parses raw (parse_vui BR beyond) pos (ser_vui_read beyond x) (expected_vui beyond x).
Proof.
  intros Hv. pose proof Hv as Hv0. unfold vui_valid in Hv. split_all. unfold ue_ok in *.
  unfold parse_vui, ser_vui_read.
  apply parses_vui_sar; [exact Hv0|].
  unfold expected_vui.
  destruct beyond; cbn [negb]; cbv iota; [|apply parses_ret].
  unfold ser_vui_rest.
  preads.
  eapply parses_bind.
  { apply (parses_opt raw _ (video_signal_type_present_flag x) _
             (video_format x, video_full_range_flag x, colour_description_present_flag x,
              (if colour_description_present_flag x
               then (colour_primaries x, transfer_characteristics x, matrix_coefficients x)
               else (0, 0, 0))) (0, false, false, (0, 0, 0))).
    intros _.
    pbind ltac:(apply parses_rd; lia).
    preads.
    plast ltac:(apply parses_opt; intros _;
                pbind ltac:(apply parses_rd; lia); pbind ltac:(apply parses_rd; lia);
                plast ltac:(apply parses_rd; lia); apply parses_ret).
    apply parses_ret. }
  cbv beta.
  preads.
  eapply parses_bind.
  { apply (parses_opt raw _ (chroma_loc_info_present_flag x) _
             (chroma_sample_loc_type_top_field x, chroma_sample_loc_type_bottom_field x) (0, 0)).
    intros _. preads. }
  cbv beta.
  preads.
  eapply parses_bind.
  { apply (parses_opt raw _ (timing_info_present_flag x) _
             (num_units_in_tick x, time_scale x, fixed_frame_rate_flag x) (0, 0, false)).
    intros _. pbind ltac:(apply parses_rd; lia). pbind ltac:(apply parses_rd; lia). preads. }
  cbv beta.
  preads.
  eapply parses_bind.
  { apply (parses_opt raw _ (nal_hrd_parameters_present_flag x) _ (Some (expected_hrd (nal_hrd x))) None).
    intros Hn. plast ltac:(apply parses_hrd).
    { match goal with H : (if nal_hrd_parameters_present_flag x then _ else _) = true |- _ =>
        rewrite Hn in H; exact H end. }
    apply parses_ret. }
  cbv beta.
  preads.
  eapply parses_bind.
  { apply (parses_opt raw _ (vcl_hrd_parameters_present_flag x) _ (Some (expected_hrd (vcl_hrd x))) None).
    intros Hn. plast ltac:(apply parses_hrd).
    { match goal with H : (if vcl_hrd_parameters_present_flag x then _ else _) = true |- _ =>
        rewrite Hn in H; exact H end. }
    apply parses_ret. }
  cbv beta.
  preads.
  eapply parses_bind_nil.
  { apply (parses_opt raw _ (bitstream_restriction_flag x) _
             (motion_vectors_over_pic_boundaries_flag x, max_bytes_per_pic_denom x,
              max_bits_per_mb_denom x, log2_max_mv_length_horizontal x, log2_max_mv_length_vertical x,
              max_num_reorder_frames x, max_dec_frame_buffering x) (false, 0, 0, 0, 0, 0, 0)).
    intros _. preads. }
  cbv beta.
  (* componentwise, so that the let-patterns of parseVUI's last line reduce *)
  rewrite !if_pair. cbv iota. cbn [fst snd].
  apply parses_ret_eq. rewrite !if_false_and, !if_if_and. reflexivity.
Qed.

(* ------------------------------------------------------------------ the full AVC SPS lemma *)
Lemma avc_sps_go v beyond :
  sps_valid v = true ->
  parse_sps_br beyond (nalu_sps v) =
  Ok (expected_sps_gen se_code (nbytes_at (raw_sps v) (sps_bits_before_vui v))
                       (nbytes_at (raw_sps v) (sps_bits_read beyond v)) beyond v).
Proof.
  intros Hv. apply parse_sps_br_valid; [exact Hv|].
  intros Hp raw pos'. apply parses_vui, (sps_valid_vui v Hv Hp).
Qed.

Lemma avc_sps v beyond :
  sps_valid v = true -> sps_offsets_zero v = true ->
  parse_sps_br beyond (nalu_sps v) = Ok (expected_sps beyond v).
Proof.
  intros Hv Ho. unfold expected_sps. rewrite <- expected_gen_offsets_zero by exact Ho.
  apply avc_sps_go. exact Hv.
Qed.
