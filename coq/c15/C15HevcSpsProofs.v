(* C15HevcSpsProofs.v — hevc.ParseSPSNALUnit (model, ideal bit reader) applied to the NAL unit built
   by the independent serialiser returns the coded values; SPS.ImageSize is the cropping formula. *)
From V.lib Require Import Base.
From V.c13 Require Import C13Spec C13Model.
From V.c15 Require Import C15Model C15Spec C15BitProofs C15AvcSpsProofs C15AvcPpsProofs
  C15HevcModel C15HevcSpec C15HevcBitProofs C15HevcSpsPtlProofs C15HevcSpsRpsProofs
  C15HevcSpsVuiProofs C15HevcSpsExtProofs.

Section NoDivision.
(* nothing in this section divides: lia without its preprocessing of / and mod, which visits every
   hypothesis at every call (dlia, C15HevcBitProofs, is lia with that step) *)
Ltac Zify.zify_convert_to_euclidean_division_equations_flag ::= constr:(false).

Lemma hevc_sps_runs v n :
  hsps_valid v = true ->
  runs_to (hraw_sps v) (hparse_sps BR) 0
    (u 16 (512 * 33 + 8 * sx_sps_nuh_layer_id v + sx_sps_nuh_temporal_id_plus1 v) ++ ser_hsps v)
    (trailing_bits n) (expected_hsps v).
Proof.
  intros Hv.
  set (raw := hraw_sps v).
  pose proof (fun pos => parses_hsps_ext raw v pos n Hv) as Hext.
  unfold hsps_valid in Hv. cbv zeta in Hv. split_all. unfold ue_ok in *.
  destruct (hnal_header_u16 33 (sx_sps_nuh_layer_id v) (sx_sps_nuh_temporal_id_plus1 v))
    as (_ & Hlt & Htyp); [lia | lia | lia |].
  assert (Evps : u8 (sx_sps_video_parameter_set_id v) = sx_sps_video_parameter_set_id v) by (apply u8_id; lia).
  assert (Ems : u8 (sx_sps_max_sub_layers_minus1 v) = sx_sps_max_sub_layers_minus1 v) by (apply u8_id; lia).
  assert (Eid : u8 (sx_sps_seq_parameter_set_id v) = sx_sps_seq_parameter_set_id v) by (apply u8_id; lia).
  assert (Ecf : u8 (sx_chroma_format_idc v) = sx_chroma_format_idc v) by (apply u8_id; lia).
  assert (Ew : u32 (sx_pic_width_in_luma_samples v) = sx_pic_width_in_luma_samples v) by (apply u32_id; lia).
  assert (Eh : u32 (sx_pic_height_in_luma_samples v) = sx_pic_height_in_luma_samples v) by (apply u32_id; lia).
  assert (Ebdl : u8 (sx_bit_depth_luma_minus8 v) = sx_bit_depth_luma_minus8 v) by (apply u8_id; lia).
  assert (Ebdc : u8 (sx_bit_depth_chroma_minus8 v) = sx_bit_depth_chroma_minus8 v) by (apply u8_id; lia).
  assert (El2p : u8 (sx_log2_max_pic_order_cnt_lsb_minus4 v) = sx_log2_max_pic_order_cnt_lsb_minus4 v)
    by (apply u8_id; lia).
  assert (El2p4 : u8 (sx_log2_max_pic_order_cnt_lsb_minus4 v + 4) = sx_log2_max_pic_order_cnt_lsb_minus4 v + 4)
    by (apply u8_id; lia).
  assert (Eq1 : u8 (sx_log2_min_luma_coding_block_size_minus3 v) = sx_log2_min_luma_coding_block_size_minus3 v)
    by (apply u8_id; lia).
  assert (Eq2 : u8 (sx_log2_diff_max_min_luma_coding_block_size v) = sx_log2_diff_max_min_luma_coding_block_size v)
    by (apply u8_id; lia).
  assert (Eq3 : u8 (sx_log2_min_luma_transform_block_size_minus2 v) = sx_log2_min_luma_transform_block_size_minus2 v)
    by (apply u8_id; lia).
  assert (Eq4 : u8 (sx_log2_diff_max_min_luma_transform_block_size v) = sx_log2_diff_max_min_luma_transform_block_size v)
    by (apply u8_id; lia).
  assert (Eq5 : u8 (sx_max_transform_hierarchy_depth_inter v) = sx_max_transform_hierarchy_depth_inter v)
    by (apply u8_id; lia).
  assert (Eq6 : u8 (sx_max_transform_hierarchy_depth_intra v) = sx_max_transform_hierarchy_depth_intra v)
    by (apply u8_id; lia).
  assert (Enst : u8 (lenN (sx_st_ref_pic_sets v)) = lenN (sx_st_ref_pic_sets v)) by (apply u8_id; lia).
  assert (Enlt : u8 (lenN (sx_lt_ref_pics_sps v)) = lenN (sx_lt_ref_pics_sps v)) by (apply u8_id; lia).
  unfold hparse_sps, ser_hsps, ser_hsps_main. cbv zeta. rewrite <- !app_assoc.
  rbind ltac:(apply parses_rd; exact Hlt).
  rewrite Htyp. change (negb (33 =? 33)) with false. cbv iota.
  rbind ltac:(apply parses_rd; lia).
  rbind ltac:(apply parses_rd; lia).
  rewrite Ems.
  rread.
  rbind ltac:(apply parses_hptl; [assumption | lia]).
  rreads.
  rewrite Ecf.
  rreads.
  eapply runs_bind.
  { apply (parses_opt_eq raw _ (sx_conformance_window_flag v) _
             (sx_conf_win_left_offset v, sx_conf_win_right_offset v,
              sx_conf_win_top_offset v, sx_conf_win_bottom_offset v) (0, 0, 0, 0)
             ((if sx_conformance_window_flag v then sx_conf_win_left_offset v else 0),
              (if sx_conformance_window_flag v then sx_conf_win_right_offset v else 0),
              (if sx_conformance_window_flag v then sx_conf_win_top_offset v else 0),
              (if sx_conformance_window_flag v then sx_conf_win_bottom_offset v else 0))).
    - intros _. preads. apply parses_ret_eq. rewrite !u32_id by lia. reflexivity.
    - destruct (sx_conformance_window_flag v); reflexivity. }
  cbv beta iota zeta.
  rreads.
  rewrite Ebdl, Ebdc, El2p.
  eapply runs_bind.
  { apply (parses_rep_n raw _ _ (fun t : N * N * N => t) (sx_sub_layer_ordering v)).
    - lia.
    - unfold loop_bound. destruct (sx_sps_sub_layer_ordering_info_present_flag v); lia.
    - intros [[a b] c] pos' Hin.
      match goal with H : forallb _ (sx_sub_layer_ordering v) = true |- _ =>
        rewrite forallb_forall in H; specialize (H _ Hin); cbv beta iota in H end.
      split_all.
      preads.
      apply parses_ret_eq. rewrite !u8_id by lia. reflexivity. }
  cbv beta iota zeta. rewrite map_id.
  rreads.
  rewrite Eq1, Eq2, Eq3, Eq4, Eq5, Eq6.
  eapply runs_bind.
  { apply (parses_opt_eq raw _ (sx_scaling_list_enabled_flag v) _
             (sx_sps_scaling_list_data_present_flag v) false
             (sx_scaling_list_enabled_flag v && sx_sps_scaling_list_data_present_flag v)).
    - intros Hs. pread.
      eapply parses_bind_nil; [|apply parses_ret].
      apply (parses_opt raw _ (sx_sps_scaling_list_data_present_flag v) _ tt tt).
      intros Hp. apply parses_hskip_sl.
      match goal with H : (if _ && _ then hsl_valid _ else true) = true |- _ =>
        rewrite Hs, Hp in H; exact H end.
    - destruct (sx_scaling_list_enabled_flag v); reflexivity. }
  cbv beta iota zeta.
  rreads.
  eapply runs_bind.
  { apply (parses_opt_eq raw _ (sx_pcm_enabled_flag v) _
             (sx_pcm_sample_bit_depth_luma_minus1 v, sx_pcm_sample_bit_depth_chroma_minus1 v,
              sx_log2_min_pcm_luma_coding_block_size_minus3 v,
              sx_log2_diff_max_min_pcm_luma_coding_block_size v, sx_pcm_loop_filter_disabled_flag v)
             (0, 0, 0, 0, false)
             ((if sx_pcm_enabled_flag v then sx_pcm_sample_bit_depth_luma_minus1 v else 0),
              (if sx_pcm_enabled_flag v then sx_pcm_sample_bit_depth_chroma_minus1 v else 0),
              (if sx_pcm_enabled_flag v then sx_log2_min_pcm_luma_coding_block_size_minus3 v else 0),
              (if sx_pcm_enabled_flag v then sx_log2_diff_max_min_pcm_luma_coding_block_size v else 0),
              sx_pcm_enabled_flag v && sx_pcm_loop_filter_disabled_flag v)).
    - intros _. pbind ltac:(apply parses_rd; lia). pbind ltac:(apply parses_rd; lia).
      preads.
      apply parses_ret_eq. rewrite !u8_id, !u16_id by lia. reflexivity.
    - destruct (sx_pcm_enabled_flag v); reflexivity. }
  cbv beta iota zeta.
  rread.
  replace (64 <? lenN (sx_st_ref_pic_sets v)) with false by lia. cbv iota.
  rbind ltac:(apply parses_sps_rps; [lia | assumption]).
  rread.
  eapply runs_bind.
  { apply (parses_opt raw _ (sx_long_term_ref_pics_present_flag v) _
             (lenN (sx_lt_ref_pics_sps v),
              map (fun e : N * bool => mkHLt (fst e) (snd e) false 0) (sx_lt_ref_pics_sps v)) (0, [])).
    intros _. pread. rewrite Enlt, El2p4.
    plast ltac:(apply (parses_rep_n raw _
                         (fun e : N * bool => u (sx_log2_max_pic_order_cnt_lsb_minus4 v + 4) (fst e) ++ fl (snd e))
                         (fun e : N * bool => mkHLt (fst e) (snd e) false 0) (sx_lt_ref_pics_sps v));
                [reflexivity | unfold loop_bound; lia | ]).
    { intros e pos' Hin.
      match goal with H : forallb _ (sx_lt_ref_pics_sps v) = true |- _ =>
        rewrite forallb_forall in H; specialize (H _ Hin); cbv beta in H end.
      pbind ltac:(apply parses_rd; lia). pread.
      apply parses_ret_eq. rewrite u16_id; [reflexivity|].
      assert (2 ^ (sx_log2_max_pic_order_cnt_lsb_minus4 v + 4) <= 2 ^ 16)
        by (apply N.pow_le_mono_r; lia).
      change (2 ^ 16) with 65536 in *. lia. }
    apply parses_ret. }
  cbv beta iota zeta.
  rreads.
  rbind ltac:(apply parses_opt_some; intros Hp; apply parses_hvui;
              [match goal with H : (if sx_vui_parameters_present_flag v then _ else true) = true |- _ =>
                 rewrite Hp in H; exact H end | lia]).
  rread.
  eapply runs_bind_t; [apply Hext|].
  cbv beta iota zeta. rewrite hparse_end_ok. f_equal.
  rewrite Evps, Eid, Ew, Eh, Enst.
  unfold expected_hsps. cbv beta zeta.
  replace (if sx_chroma_format_idc v =? 3 then sx_separate_colour_plane_flag v else false)
    with ((sx_chroma_format_idc v =? 3) && sx_separate_colour_plane_flag v)
    by (destruct (sx_chroma_format_idc v =? 3); reflexivity).
  destruct (sx_long_term_ref_pics_present_flag v); cbn [fst snd]; reflexivity.
Qed.

(* ------------------------------------------------------------------ the NAL unit *)
Lemma hevc_sps v :
  hsps_valid v = true -> hparse_sps_br (hnalu_sps v) = Ok (expected_hsps v).
Proof.
  intros Hv.
  assert (Hb : sx_sps_nuh_layer_id v < 64 /\ sx_sps_nuh_temporal_id_plus1 v < 8)
    by (unfold hsps_valid in Hv; cbv zeta in Hv; split_all; lia).
  destruct Hb as [Hl Ht].
  destruct (hnal_header_u16 33 (sx_sps_nuh_layer_id v) (sx_sps_nuh_temporal_id_plus1 v))
    as (Hh & _ & _); [lia | exact Hl | exact Ht |].
  unfold hparse_sps_br, hnalu_sps. rewrite binit_hnalu. fold (hraw_sps v).
  rewrite Hh, app_assoc.
  apply (hevc_sps_runs v _ Hv).
Qed.

(* ------------------------------------------------------------------ SPS.ImageSize *)
(* one axis of SPS.ImageSize: Go subtracts in uint32, which is exact because the cropped amount is
   below the picture size *)
Lemma crop_u32 w s t : 1 <= s -> s * t < w -> w < 4294967296 ->
  u32 (w + 4294967296 - u32 (u32 t * s)) = w - s * t.
Proof.
  intros Hs Ht Hw.
  assert (Hle : 1 * t <= s * t) by (apply N.mul_le_mono_r; exact Hs).
  rewrite (u32_id t), (N.mul_comm t s) by lia.
  set (p := s * t) in *. clearbody p. rewrite (u32_id p) by lia. unfold u32.
  replace (w + 4294967296 - p) with (w - p + 1 * 4294967296) by lia.
  rewrite N.mod_add by discriminate. apply N.mod_small. lia.
Qed.

Lemma h_crop_w_eq v :
  h_crop_w v = h_sub_width_c v * ((if sx_conformance_window_flag v then sx_conf_win_left_offset v else 0)
                                  + (if sx_conformance_window_flag v then sx_conf_win_right_offset v else 0)).
Proof. unfold h_crop_w. destruct (sx_conformance_window_flag v); [reflexivity | symmetry; apply N.mul_0_r]. Qed.

Lemma h_crop_h_eq v :
  h_crop_h v = h_sub_height_c v * ((if sx_conformance_window_flag v then sx_conf_win_top_offset v else 0)
                                   + (if sx_conformance_window_flag v then sx_conf_win_bottom_offset v else 0)).
Proof. unfold h_crop_h. destruct (sx_conformance_window_flag v); [reflexivity | symmetry; apply N.mul_0_r]. Qed.

Lemma hsps_valid_crop v : hsps_valid v = true ->
  h_crop_w v < sx_pic_width_in_luma_samples v < 65536 /\ h_crop_h v < sx_pic_height_in_luma_samples v < 65536.
Proof. intros Hv. unfold hsps_valid in Hv. cbv zeta in Hv. split_all. lia. Qed.

Lemma hevc_dims v :
  hsps_valid v = true -> himage_size (expected_hsps v) = expected_himage_size v.
Proof.
  intros Hv. destruct (hsps_valid_crop v Hv) as ((Cw & Hw) & (Ch & Hh)). clear Hv.
  rewrite h_crop_w_eq in Cw. rewrite h_crop_h_eq in Ch.
  unfold himage_size, expected_himage_size, h_display_width, h_display_height, expected_hsps. cbv zeta.
  cbn [h_chroma h_width h_height h_cw_left h_cw_right h_cw_top h_cw_bottom].
  rewrite h_crop_w_eq, h_crop_h_eq. unfold h_sub_width_c, h_sub_height_c in *.
  f_equal; apply crop_u32; try assumption; try lia.
  - destruct (_ || _); lia.
  - destruct (_ =? 1); lia.
Qed.

End NoDivision.
