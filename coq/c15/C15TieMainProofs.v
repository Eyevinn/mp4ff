(* C15TieMainProofs.v — what the reader ties need of the serialisers' output to carry the parse theorems
   over to the reader the Go code really uses (the parse_X_er functions on nalu_X = C13Spec.escape of
   raw_X): the unescaped NAL units are byte strings; the HEVC SPS the parser returns is within the
   widths of the tie.  No axioms. *)
From V.lib Require Import Base.
From V.c13 Require Import C13Spec C13Model C13ReaderProofs.
From V.c15 Require Import C15Model C15Spec C15BitProofs C15AvcSpsProofs C15AvcVuiProofs C15AvcPpsProofs C15AvcSliceProofs C15Avc2Proofs C15AvcDimsProofs
  C15HevcModel C15HevcSpec C15HevcPpsProofs C15HevcSpsProofs C15HevcSliceProofs
  C15TieBaseProofs C15TieRelProofs C15TieAvcProofs C15TieHevcProofs C15TieHevcSpsProofs
  C15Hevc2Model C15Hevc2Spec C15Hevc2PpsProofs C15TieHevc2Proofs.

Lemma bytes_of_bits_ok_aux n : forall l, (length l <= n)%nat -> bytes_ok (bytes_of_bits l) = true.
Proof.
  induction n as [|n IH]; intros l Hl.
  - destruct l; [reflexivity|cbn in Hl; lia].
  - destruct l as [|b7 [|b6 [|b5 [|b4 [|b3 [|b2 [|b1 [|b0 t]]]]]]]]; try reflexivity.
    cbn [bytes_of_bits]. rewrite bytes_ok_cons. apply andb_true_iff. split.
    + destruct b7, b6, b5, b4, b3, b2, b1, b0; reflexivity.
    + apply IH. cbn [length] in Hl. lia.
Qed.
Lemma bytes_of_bits_ok l : bytes_ok (bytes_of_bits l) = true.
Proof. apply (bytes_of_bits_ok_aux (length l)). lia. Qed.

Lemma raw_nalu_ok r t p : bytes_ok (raw_nalu r t p) = true.
Proof. apply bytes_of_bits_ok. Qed.
Lemma hraw_nalu_ok t l i p : bytes_ok (hraw_nalu t l i p) = true.
Proof. apply bytes_of_bits_ok. Qed.

(* what the EBSP-reader instance returned for a serialised parameter set, the ideal instance returns too *)
Lemma sps_er_br sp beyond s : zrun_ok (raw_sps sp) = true ->
  parse_sps_er beyond (nalu_sps sp) = Ok s -> parse_sps_br beyond (nalu_sps sp) = Ok s.
Proof. intros Hz E. exact (eq_trans (eq_sym (tie_avc_sps (raw_sps sp) beyond (raw_nalu_ok _ _ _) Hz)) E). Qed.

Lemma pps_er_br pp cm p : zrun_ok (raw_pps pp) = true ->
  parse_pps_er cm (nalu_pps pp) = Ok p -> parse_pps_br cm (nalu_pps pp) = Ok p.
Proof. intros Hz E. exact (eq_trans (eq_sym (tie_avc_pps (raw_pps pp) cm (raw_nalu_ok _ _ _) Hz)) E). Qed.

Lemma hsps_valid_depths v : hsps_valid v = true -> hsps_depths_ok (expected_hsps v) = true.
Proof.
  intros Hv. unfold hsps_depths_ok, expected_hsps. cbn [h_bdl h_bdc h_log2_poc].
  unfold hsps_valid in Hv. split_all. lia.
Qed.

Lemma hraw_slice_ok sp pp v : hslice_valid sp pp v = true -> bytes_ok (hraw_slice sp pp v) = true.
Proof.
  intros Hv. unfold hraw_slice. rewrite bytes_ok_app, bytes_of_bits_ok. cbn [andb].
  unfold hslice_valid in Hv. split_all. assumption.
Qed.

(* ---------------------------------------------------------------- HEVC PPS with multilayer / 3D extensions *)
Lemma hevc_pps2_er spsmap x :
  hpps2_valid x = true -> spsmap (sx_pps_seq_parameter_set_id (sx2_base x)) = true ->
  zrun_ok (hraw_pps2 x) = true ->
  hparse_pps2_er spsmap (hnalu_pps2 x) = Ok (expected_hpps2 x).
Proof.
  intros Hv Hm Hz.
  exact (eq_trans (tie_hevc_pps2 (hraw_pps2 x) spsmap (hraw_nalu_ok _ _ _ _) Hz) (hevc_pps2 spsmap x Hv Hm)).
Qed.
