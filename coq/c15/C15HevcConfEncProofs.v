(* C15HevcConfEncProofs.v — DecConfRec.Encode / Size against the bit fields of the
   HEVCDecoderConfigurationRecord syntax table (14496-15 8.3.3.1.2): Go's byte arithmetic (shifts,
   or-ing of disjoint fields, big-endian writers) produces bytes_of_bits of the concatenated u(n)
   fields (hevc_confrec_encode); Size is the length of what Encode writes, for every record. *)
From V.lib Require Import Base.
From V.c13 Require Import C13Spec C13Model.
From V.c15 Require Import C15Model C15Spec C15BitProofs C15AvcSpsProofs C15HevcModel C15HevcSpec
  C15HevcBitProofs C15HevcConfModel C15HevcConfSpec C15HevcConfProofs.
From V.c16 Require Import C16ConfRecModel.

(* ------------------------------------------------------------------ or of disjoint fields *)
Lemma land_ones32 x : N.land x 4294967295 = x mod 4294967296.
Proof. change 4294967295 with (N.ones 32). rewrite N.land_ones. reflexivity. Qed.

(* the bytes Encode builds by or-ing shifted fields, as sums *)
Lemma byte1_value sp (tier : bool) idc : sp < 4 -> idc < 32 ->
  N.lor (N.lor (u8 (sp * 64)) (if tier then 32 else 0)) (u8 idc) = sp * 64 + b2n tier * 32 + idc.
Proof.
  intros Hs Hi. rewrite !u8_id by lia. rewrite <- N.lor_assoc.
  replace (if tier then 32 else 0) with (b2n tier * 32) by (destruct tier; reflexivity).
  pose proof (b2n_lt2 tier) as Ht.
  rewrite (lor_low (b2n tier * 32) _ 5) by (change (2 ^ 5) with 32; lia).
  rewrite (lor_low (sp * 64) _ 6) by (change (2 ^ 6) with 64; lia).
  lia.
Qed.

Lemma byte21_value cfr ntl tin : cfr < 4 -> ntl < 8 -> tin < 2 ->
  N.lor (N.lor (N.lor (u8 (cfr * 64)) (u8 (ntl * 8))) (u8 (tin * 4))) (u8 3)
  = cfr * 64 + ntl * 8 + tin * 4 + 3.
Proof.
  intros Hc Hn Ht. rewrite !u8_id by lia.
  rewrite (lor_low (cfr * 64) _ 6) by (change (2 ^ 6) with 64; lia).
  rewrite (lor_low (cfr * 64 + ntl * 8) _ 3) by (change (2 ^ 3) with 8; lia).
  rewrite (lor_low (cfr * 64 + ntl * 8 + tin * 4) _ 2) by (change (2 ^ 2) with 4; lia).
  reflexivity.
Qed.

Lemma lor_61440 x : x < 4096 -> N.lor 61440 (u16 x) = 61440 + x.
Proof.
  intros H. unfold u16. rewrite N.mod_small by lia.
  apply (lor_low 61440 x 12); [change (2 ^ 12) with 4096; lia | reflexivity].
Qed.

Lemma lor_252 x : x < 4 -> N.lor 252 (u8 x) = 252 + x.
Proof.
  intros H. rewrite u8_id by lia.
  apply (lor_low 252 x 2); [change (2 ^ 2) with 4; lia | reflexivity].
Qed.

Lemma lor_248 x : x < 8 -> N.lor 248 (u8 x) = 248 + x.
Proof.
  intros H. rewrite u8_id by lia.
  apply (lor_low 248 x 3); [change (2 ^ 3) with 8; lia | reflexivity].
Qed.

(* ------------------------------------------------------------------ sub-byte fields *)
Lemma bits_2_1_5 a t b rest : b < 32 ->
  u 2 a ++ fl t ++ u 5 b ++ rest = u 8 (a * 64 + b2n t * 32 + b) ++ rest.
Proof.
  intros Hb. pose proof (b2n_lt2 t) as Ht.
  rewrite fl_u1, !app_assoc. f_equal. rewrite <- app_assoc.
  rewrite (u_app 1 5) by (change (2 ^ 5) with 32; lia).
  rewrite (u_app 2 (1 + 5)) by (change (2 ^ (1 + 5)) with 64; change (2 ^ 5) with 32; lia).
  change (2 + (1 + 5)) with 8. change (2 ^ (1 + 5)) with 64. change (2 ^ 5) with 32.
  f_equal. lia.
Qed.

Lemma bits_6_2 b rest : b < 4 -> u 6 63 ++ u 2 b ++ rest = u 8 (252 + b) ++ rest.
Proof.
  intros Hb. rewrite app_assoc. f_equal.
  rewrite (u_app 6 2) by (change (2 ^ 2) with 4; lia). reflexivity.
Qed.

Lemma bits_5_3 b rest : b < 8 -> u 5 31 ++ u 3 b ++ rest = u 8 (248 + b) ++ rest.
Proof.
  intros Hb. rewrite app_assoc. f_equal.
  rewrite (u_app 5 3) by (change (2 ^ 3) with 8; lia). reflexivity.
Qed.

Lemma bits_1_1_6 c t rest : t < 64 ->
  fl c ++ fl false ++ u 6 t ++ rest = u 8 (b2n c * 128 + t) ++ rest.
Proof.
  intros Ht. pose proof (b2n_lt2 c) as Hc.
  rewrite !fl_u1, !app_assoc. f_equal. rewrite <- app_assoc.
  rewrite (u_app 1 6) by (change (2 ^ 6) with 64; lia).
  rewrite (u_app 1 (1 + 6)) by (change (2 ^ (1 + 6)) with 128; change (2 ^ 6) with 64; cbn [b2n]; lia).
  change (1 + (1 + 6)) with 8. change (2 ^ (1 + 6)) with 128. change (2 ^ 6) with 64. cbn [b2n].
  f_equal; lia.
Qed.

(* ------------------------------------------------------------------ the fixed 23 bytes *)
Lemma spec_hvcc_fixed_bytes v n :
  hsps_valid v = true -> hconf_depths_fit v = true ->
  let g := sx_general (sx_sps_ptl v) in
  let c := constraint48 g in
  bytes_of_bits (spec_hvcc_fixed v n)
  = [u8 1; u8 (sx_profile_space g * 64 + b2n (sx_tier_flag g) * 32 + sx_profile_idc g);
     u8 (sx_profile_compatibility_flags g / 16777216); u8 (sx_profile_compatibility_flags g / 65536);
     u8 (sx_profile_compatibility_flags g / 256); u8 (sx_profile_compatibility_flags g);
     u8 (c / 1099511627776); u8 (c / 4294967296); u8 (c / 16777216); u8 (c / 65536); u8 (c / 256); u8 c;
     u8 (sx_general_level_idc (sx_sps_ptl v));
     u8 (61440 / 256); u8 61440; u8 252;
     u8 (252 + sx_chroma_format_idc v); u8 (248 + sx_bit_depth_luma_minus8 v);
     u8 (248 + sx_bit_depth_chroma_minus8 v);
     u8 (0 / 256); u8 0; u8 3; u8 n].
Proof.
  intros Hv Hd. destruct (hsps_valid_conf v Hv) as (Hs & Hi & Hc & H43 & Hl & Hch). cbv zeta in *.
  destruct (constraint48_bits _ H43) as [Hbits H48].
  unfold hconf_depths_fit in Hd. apply andb_prop in Hd. destruct Hd as [Hdl Hdc].
  unfold spec_hvcc_fixed. cbv zeta. unfold hprofile_constraint_bits.
  set (g := sx_general (sx_sps_ptl v)) in *.
  rewrite <- !app_assoc.
  rewrite bits_2_1_5 by exact Hi.
  change (fl (sx_progressive_source_flag g) ++ fl (sx_interlaced_source_flag g)
          ++ fl (sx_non_packed_constraint_flag g) ++ fl (sx_frame_only_constraint_flag g)
          ++ u 43 (sx_constraint_43bits g) ++ fl (sx_inbld_flag g) ++ ?r)
    with ((fl (sx_progressive_source_flag g) ++ fl (sx_interlaced_source_flag g)
          ++ fl (sx_non_packed_constraint_flag g) ++ fl (sx_frame_only_constraint_flag g)
          ++ u 43 (sx_constraint_43bits g) ++ fl (sx_inbld_flag g)) ++ r).
  rewrite Hbits.
  change (u 4 15 ++ u 12 0 ++ ?r) with (u 16 61440 ++ r).
  change (u 6 63 ++ u 2 0 ++ ?r) with (u 8 252 ++ r).
  rewrite bits_6_2 by lia.
  rewrite !bits_5_3 by lia.
  change (u 2 0 ++ u 3 0 ++ fl false ++ u 2 3 ++ ?r) with (u 8 3 ++ r).
  rewrite <- (app_nil_r (u 8 n)).
  repeat (rewrite bytes_of_bits_u8 || rewrite bytes_of_bits_u16 || rewrite bytes_of_bits_u32
          || rewrite bytes_of_bits_u48).
  reflexivity.
Qed.

(* ------------------------------------------------------------------ the arrays *)
(* the big-endian writers put out the bytes of the u(16) / u(48) field, whatever the value: u(n)
   keeps the low n bits, like the casts *)
Lemma be16_bits x : be16 (u16 x) = bytes_of_bits (u 16 x).
Proof.
  unfold u. change (N.to_nat 16) with 16%nat. rewrite <- (ubits_mod 16 16 x) by reflexivity.
  rewrite <- (app_nil_r (ubits _ _)). symmetry. apply (bytes_of_bits_u16 (u16 x)).
Qed.

Lemma be32_bits x : be32 (u32 x) = bytes_of_bits (u 32 x).
Proof.
  unfold u. change (N.to_nat 32) with 32%nat. rewrite <- (ubits_mod 32 32 x) by reflexivity.
  rewrite <- (app_nil_r (ubits _ _)). symmetry. apply (bytes_of_bits_u32 (u32 x)).
Qed.

Lemma be48_bytes c :
  be48 c = [u8 (c / 1099511627776); u8 (c / 4294967296); u8 (c / 16777216); u8 (c / 65536); u8 (c / 256); u8 c].
Proof.
  transitivity (bytes_of_bits (u 48 c ++ [])); [|apply bytes_of_bits_u48].
  rewrite (u_split 16 32 c : u 48 c = _), <- app_assoc, bytes_of_bits_u16, app_nil_r.
  unfold be48. rewrite be16_bits, be32_bits, shiftr_div, land_ones32.
  rewrite <- (app_nil_r (u 16 _)), bytes_of_bits_u16. cbn [app bytes_of_bits]. do 3 f_equal.
  unfold u. change (N.to_nat 32) with 32%nat. apply (ubits_mod 32 32 c). reflexivity.
Qed.

Lemma hconf_encode_array_spec (c : bool) t l : t < 64 ->
  hconf_encode_array ((if c then 128 else 0) + t, l) = spec_hvcc_array c t l.
Proof.
  intros Ht. unfold hconf_encode_array, spec_hvcc_array. cbn [fst snd].
  rewrite bits_1_1_6 by exact Ht. rewrite bytes_of_bits_u8, <- be16_bits. cbn [app].
  f_equal; [destruct c; reflexivity|]. f_equal.
  apply flat_map_ext. intros n. rewrite be16_bits. reflexivity.
Qed.

Lemma cons_eq {A} (a b : A) l m : a = b -> l = m -> a :: l = b :: m.
Proof. intros -> ->. reflexivity. Qed.

Lemma hevc_confrec_encode_eq v vps sps pps vc sc pc inc :
  hsps_valid v = true -> hconf_depths_fit v = true ->
  hconf_encode (expected_hconf v vps sps pps vc sc pc inc) = spec_hvcc v vps sps pps vc sc pc inc.
Proof.
  intros Hv Hd. unfold spec_hvcc. rewrite spec_hvcc_fixed_bytes by assumption. cbv zeta.
  destruct (hsps_valid_conf v Hv) as (Hs & Hi & Hc & H43 & Hl & Hch). cbv zeta in *.
  destruct (constraint48_bits _ H43) as [_ H48].
  unfold hconf_depths_fit in Hd. apply andb_prop in Hd. destruct Hd as [Hdl Hdc].
  unfold hconf_encode, expected_hconf. cbv zeta.
  cbn [hr_version hr_profile_space hr_tier hr_profile_idc hr_compat_flags hr_constraint_flags
       hr_level_idc hr_min_spatial_seg hr_parallelism hr_chroma hr_bdl hr_bdc hr_avg_frame_rate
       hr_const_frame_rate hr_num_temporal_layers hr_temporal_id_nested hr_length_size_minus_one
       hr_arrays].
  set (g := sx_general (sx_sps_ptl v)) in *. set (c := constraint48 g) in *.
  rewrite byte1_value, be48_bytes, !lor_252, !lor_248 by lia.
  rewrite (u8_id (_ + _ + _)), (u8_id (252 + _)), !(u8_id (248 + _)) by (pose proof (b2n_lt2 (sx_tier_flag g)); lia).
  unfold be32, be16. cbn [app].
  repeat (apply cons_eq; [try reflexivity|]).
  - destruct inc; reflexivity.
  - destruct inc; [|reflexivity]. cbn [flat_map]. rewrite !hconf_encode_array_spec by lia.
    rewrite app_nil_r. reflexivity.
Qed.

(* ------------------------------------------------------------------ Size = length of Encode, every record *)
Lemma lenN_be16 x : lenN (be16 x) = 2.
Proof. reflexivity. Qed.

Lemma lenN_flat_map {A B} (f : A -> list B) l : lenN (flat_map f l) = sumN (map (fun a => lenN (f a)) l).
Proof.
  induction l as [|a t IH]; cbn [flat_map map sumN]; [reflexivity|]. rewrite lenN_app, IH. reflexivity.
Qed.

Lemma sumN_map_ext {A} (f g : A -> N) l : (forall a, f a = g a) -> sumN (map f l) = sumN (map g l).
Proof. intros H. induction l as [|a t IH]; cbn [map sumN]; [reflexivity|]. rewrite H, IH. reflexivity. Qed.

Lemma lenN_hconf_encode_array a :
  lenN (hconf_encode_array a) = 3 + sumN (map (fun n => 2 + lenN n) (snd a)).
Proof.
  unfold hconf_encode_array, be16. cbn [app]. rewrite !lenN_cons, lenN_flat_map.
  rewrite (sumN_map_ext _ (fun n => 2 + lenN n)); [lia|].
  intros n. cbn [app]. rewrite !lenN_cons. lia.
Qed.

Lemma hconf_size_encode r : hconf_size r = lenN (hconf_encode r).
Proof.
  unfold hconf_size, hconf_encode, be48, be32, be16. cbn [app].
  rewrite !lenN_cons, lenN_flat_map.
  rewrite (sumN_map_ext _ _ _ lenN_hconf_encode_array). lia.
Qed.

Lemma hevc_confrec_encode v vps sps pps vc sc pc inc :
  hsps_valid v = true -> hconf_depths_fit v = true ->
  nalus_fit vps = true -> nalus_fit sps = true -> nalus_fit pps = true ->
  hconf_encode (expected_hconf v vps sps pps vc sc pc inc) = spec_hvcc v vps sps pps vc sc pc inc
  /\ hconf_size (expected_hconf v vps sps pps vc sc pc inc) = lenN (spec_hvcc v vps sps pps vc sc pc inc).
Proof.
  intros Hv Hd _ _ _. rewrite hconf_size_encode, hevc_confrec_encode_eq by assumption. split; reflexivity.
Qed.
