(* C15TieHevc2Proofs.v — hevc.ParsePPSNALUnit with the multilayer and 3D extensions (C15Hevc2Model.hparse_pps2):
   the instance over the C13 machine model of bits.EBSPReader and the instance over the ideal bit-list
   reader return the same result on every escaped byte string without a run of more than 56 zero bits.
   No axioms. *)
From V.lib Require Import Base.
From V.c13 Require Import C13Spec C13Model C13ReaderProofs.
From V.c15 Require Import C15Model C15HevcModel C15Hevc2Model C15TieBaseProofs C15TieRelProofs C15TieAvcProofs C15TieHevcProofs.

Section Hevc2.
  Variable raw : list N.
  Hypothesis raw_ok : Forall lt256 raw.

  Lemma br_read_lt b n : fst (br_read b n) < 2 ^ n.
  Proof.
    unfold br_read. destruct (berr b); cbn [fst]; [apply pow2_pos|].
    destruct (n <=? lenN (bbits b)); cbn [fst]; [|apply pow2_pos].
    eapply N.lt_le_trans; [apply bval_lt|]. apply N.pow_le_mono_r; [lia|]. rewrite firstn_length. lia.
  Qed.

  (* Read(n) followed by code that may use the value's range *)
  Lemma MRel_bind_rd {A} st st' n (k1 : N -> rstate -> res (A * rstate)) k2 :
    n <= 56 -> (forall a, a < 2 ^ n -> MRel raw st st' (k1 a) (k2 a)) ->
    MRel raw st st' (bind (rd ER n) k1) (bind (rd BR n) k2).
  Proof.
    intros Hn Hk s b H. pose proof (read_sim raw st s b n Hn H) as [E S1]. pose proof (br_read_lt b n) as Hlt.
    unfold bind, rd. cbn [r_read ER BR].
    destruct (read s n) as [v s1], (br_read b n) as [v' b1]. cbn [fst snd] in *. subst v'.
    apply (Hk v Hlt). exact S1.
  Qed.

  Ltac tie_sub ::= tie_loops.
  Ltac tie_rd_side ::= first [ tie_width | (unfold u8 in *; lia) ].

  Lemma rel_hse4 st c : MRel raw st st (hparse_se4 ER c) (hparse_se4 BR c).
  Proof. unfold hparse_se4. tie. Qed.
  Local Hint Resolve rel_hse4 : tie.
  Lemma rel_hrefloc st : MRel raw st st (hparse_refloc ER) (hparse_refloc BR).
  Proof. unfold hparse_refloc. tie. Qed.

  Lemma rel_hcoef st rb : rb <= 56 -> MRel raw st st (hparse_coef ER rb) (hparse_coef BR rb).
  Proof. intros H. unfold hparse_coef. tie. Qed.
  Local Hint Resolve rel_hcoef : tie.
  Lemma rel_hvertex st rb : rb <= 56 -> MRel raw st st (hparse_vertex ER rb) (hparse_vertex BR rb).
  Proof. intros H. unfold hparse_vertex. tie. Qed.
  Local Hint Resolve rel_hvertex : tie.
  Lemma rel_hleaf st rb sh iy icb icr : rb <= 56 -> forall cnt i,
    MRel raw st st (hparse_leaf ER cnt i sh rb iy icb icr) (hparse_leaf BR cnt i sh rb iy icb icr).
  Proof. intros H. induction cnt as [|c IH]; intros i; cbn [hparse_leaf]; tie. Qed.
  Local Hint Resolve rel_hleaf : tie.

  Lemma rel_hoctants st depth pn rb : rb <= 56 -> forall fuel d iy icb icr il,
    MRel raw st st (hparse_octants ER fuel depth pn rb d iy icb icr il) (hparse_octants BR fuel depth pn rb d iy icb icr il).
  Proof.
    intros H. induction fuel as [|f IH]; intros d iy icb icr il; cbn [hparse_octants]; tie.
  Qed.

  Local Hint Extern 1 (MRel _ _ _ (hparse_octants ER _ _ _ _ _ _ _ _ _) _) => apply rel_hoctants; lia : tie.
  Lemma rel_hcm st : MRel raw st st (hparse_cm ER) (hparse_cm BR).
  Proof. unfold hparse_cm. tie. Qed.
  Local Hint Resolve rel_hrefloc rel_hcm : tie.

  Lemma rel_hppsml st : MRel raw st st (hparse_pps_ml ER) (hparse_pps_ml BR).
  Proof. unfold hparse_pps_ml. tie. Qed.

  Ltac tie_rd_side ::= first [ tie_width | lia ].
  Lemma rel_hdelta st bd : bd <= 56 -> MRel raw st st (hparse_delta_dlt ER bd) (hparse_delta_dlt BR bd).
  Proof. intros H. unfold hparse_delta_dlt. tie. Qed.
  Local Hint Resolve rel_hdelta : tie.
  Lemma rel_hdlayer st bd : bd <= 56 -> MRel raw st st (hparse_dlayer ER bd) (hparse_dlayer BR bd).
  Proof. intros H. unfold hparse_dlayer. tie. Qed.

  Lemma rel_hpps3d st : MRel raw st st (hparse_pps_3d ER) (hparse_pps_3d BR).
  Proof.
    unfold hparse_pps_3d.
    eapply (MRel_bind raw st st); [apply MRel_flag|]. intros dp.
    eapply (MRel_bind raw st st).
    - destruct dp; [|apply MRel_ret].
      eapply (MRel_bind raw st st); [apply MRel_rd; lia|]. intros nl.
      apply MRel_bind_rd; [lia|]. intros bd Hbd. change (2 ^ 4) with 16 in Hbd.
      eapply (MRel_bind raw st st); [|intros ls; apply MRel_ret].
      apply MRel_rep_until_err. apply rel_hdlayer. unfold u8. lia.
    - intros r. tie.
  Qed.

  Local Hint Resolve rel_hskip rel_hpps_range rel_hpps_scc rel_hext_data rel_hparse_end rel_hppsml rel_hpps3d : tie.
  Ltac tie_rd_side ::= first [ tie_width | (split_orb; unfold u64; lia) ].
  Lemma rel_hparse_pps2 st spsmap : MRel raw st st (hparse_pps2 ER spsmap) (hparse_pps2 BR spsmap).
  Proof. unfold hparse_pps2. tie. Qed.
End Hevc2.

Lemma tie_hevc_pps2 raw spsmap :
  bytes_ok raw = true -> zrun_ok raw = true ->
  hparse_pps2_er spsmap (escape raw) = hparse_pps2_br spsmap (escape raw).
Proof.
  intros Hb Hz. unfold hparse_pps2_er, hparse_pps2_br.
  apply (MRel_run raw (bytes_ok_lt256 raw Hb) true true); [apply rel_hparse_pps2|exact Hz].
Qed.
