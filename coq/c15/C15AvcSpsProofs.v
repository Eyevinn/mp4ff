(* C15AvcSpsProofs.v — ParseSPSNALUnit (model, ideal bit reader) applied to the NAL unit built
   by the independent serialiser returns the coded values. *)
From V.lib Require Import Base.
From V.c13 Require Import C13Spec C13Model.
From V.c15 Require Import C15Model C15Spec C15BitProofs.

Ltac pbind tac := eapply parses_bind; [ tac | cbv beta iota zeta ].
Ltac plast tac := eapply parses_bind_nil; [ tac | cbv beta iota zeta ].

Lemma parses_bind_ret {A B} raw (a : A) (k : A -> bstate -> res (B * bstate)) pos e b :
  parses raw (k a) pos e b -> parses raw (bind (ret a) k) pos e b.
Proof. intros H rest. apply H. Qed.

(* the first parser consumes nothing (NrBytesRead, AccError) *)
Lemma parses_bind_peek {A B} raw (p : bstate -> res (A * bstate)) (k : A -> bstate -> res (B * bstate))
      pos e a b :
  parses raw p pos [] a -> parses raw (k a) pos e b -> parses raw (bind p k) pos e b.
Proof.
  intros H1 H2. change e with ([] ++ e). eapply parses_bind; [exact H1|].
  rewrite lenN_nil, N.add_0_r. exact H2.
Qed.

Lemma parses_opt {A} raw (p : bstate -> res (A * bstate)) (c : bool) e (a d : A) pos :
  (c = true -> parses raw p pos e a) ->
  parses raw (if c then p else ret d) pos (opt_bits c e) (if c then a else d).
Proof. destruct c; intros H; [apply H; reflexivity | apply parses_ret]. Qed.

(* optional element introduced by `if !c` in Go *)
Lemma parses_opt_neg {A} raw (p : bstate -> res (A * bstate)) (c : bool) e (a d : A) pos :
  (c = false -> parses raw p pos e a) ->
  parses raw (if negb c then p else ret d) pos (opt_bits (negb c) e) (if c then d else a).
Proof. destruct c; intros H; [apply parses_ret | apply H; reflexivity]. Qed.

Lemma parses_bind_assoc {A B C} raw (p : bstate -> res (A * bstate)) (f : A -> bstate -> res (B * bstate))
      (k : B -> bstate -> res (C * bstate)) pos e c :
  parses raw (bind p (fun x => bind (f x) k)) pos e c -> parses raw (bind (bind p f) k) pos e c.
Proof. intros H rest. specialize (H rest). unfold bind in *. destruct (p _) as [[a s]| | |]; exact H. Qed.

(* One step of a walk that needs no argument: the next element is a plain flag / ue(v) / se(v), possibly
   under an `if`; or the parser peeks at the error flag or the byte counter, nests a sequence, or returns
   the value asked for.  (An se(v) element that the Go code reads with ReadExpGolomb comes back as its
   codeNum.) *)
Ltac pstep tac := first [ pbind tac | plast tac ].
Ltac pread :=
  lazymatch goal with
  | |- parses _ (bind (rd_flag BR) _) _ _ _ => pstep ltac:(apply parses_flag)
  | |- parses _ (bind (rd_ue BR) _) _ _ _ => pstep ltac:(apply parses_ue)
  | |- parses _ (bind (rd_se BR) _) _ _ _ => pstep ltac:(apply parses_se)
  | |- parses _ (bind (if negb _ then rd_flag BR else ret _) _) _ _ _ =>
      pstep ltac:(apply parses_opt_neg; intros _; apply parses_flag)
  | |- parses _ (bind (if _ then rd_flag BR else ret _) _) _ _ _ =>
      pstep ltac:(apply parses_opt; intros _; apply parses_flag)
  | |- parses _ (bind (if _ then rd_ue BR else ret _) _) _ _ _ =>
      pstep ltac:(apply parses_opt; intros _; apply parses_ue)
  | |- parses _ (bind (if _ then rd_se BR else ret _) _) _ _ _ =>
      pstep ltac:(apply parses_opt; intros _; apply parses_se)
  | |- parses _ (bind (get_err BR) _) _ _ _ =>
      eapply parses_bind_peek; [apply parses_get_err | cbv beta iota zeta]
  | |- parses _ (bind (get_nbytes BR) _) _ _ _ =>
      eapply parses_bind_peek; [apply parses_get_nbytes | cbv beta iota zeta]
  | |- parses _ (bind (ret _) _) _ _ _ => apply parses_bind_ret; cbv beta iota zeta
  | |- parses _ (bind (bind _ _) _) _ _ _ => apply parses_bind_assoc
  | |- parses _ (ret _) _ _ _ => apply parses_ret
  end.
Ltac preads := repeat pread.

(* the shapes in which an absent optional element shows up in the parsed value *)
Lemma if_pair {A B} (c : bool) (a a' : A) (b b' : B) :
  (if c then (a, b) else (a', b')) = ((if c then a else a'), (if c then b else b')).
Proof. destruct c; reflexivity. Qed.

Lemma if_false_and (b d : bool) : (if b then d else false) = b && d.
Proof. destruct b; reflexivity. Qed.

Lemma if_if_and {A} (a b : bool) (x d : A) : (if a then (if b then x else d) else d) = (if a && b then x else d).
Proof. destruct a; reflexivity. Qed.

(* ------------------------------------------------------------------ scaling lists *)
Lemma parses_scaling_list raw : forall n last next ds lst pos,
  forallb delta_ok ds = true -> (0 <= last)%Z ->
  scaling_derive n last next ds = Some lst ->
  parses raw (read_scaling_list BR n last next) pos (flat_map se_bits ds) lst.
Proof.
  induction n as [|k IH]; intros last next ds lst pos Hd Hl Hs; cbn [read_scaling_list scaling_derive] in *.
  - destruct ds; [|discriminate]. injection Hs as <-. apply parses_ret.
  - destruct (next =? 0)%Z eqn:Hn.
    + preads. rewrite Hn.
      destruct (scaling_derive k last 0 ds) as [t|] eqn:Ht; [|discriminate].
      injection Hs as <-.
      apply Z.eqb_eq in Hn. subst next.
      plast ltac:(apply (IH last 0%Z ds t); assumption).
      apply parses_ret.
    + destruct ds as [|d ds']; [discriminate|].
      cbn [forallb] in Hd. apply andb_prop in Hd. destruct Hd as [Hd1 Hd2].
      unfold delta_ok in Hd1.
      cbn [flat_map].
      assert (Hrem : Z.rem (last + d + 256) 256 = ((last + d + 256) mod 256)%Z)
        by (apply Z.rem_mod_nonneg; clear - Hd1 Hl; lia).
      set (next' := ((last + d + 256) mod 256)%Z) in *.
      set (x := if (next' =? 0)%Z then last else next') in *.
      destruct (scaling_derive k x next' ds') as [t|] eqn:Ht; [|discriminate].
      injection Hs as <-.
      assert (Hn' : (0 <= next' < 256)%Z) by (apply Z.mod_pos_bound; lia).
      assert (Hx : (0 <= x)%Z) by (unfold x; destruct (next' =? 0)%Z; lia).
      preads. rewrite Hrem. fold next'. fold x.
      plast ltac:(apply (IH x next' ds' t); assumption).
      apply parses_ret.
Qed.

Lemma parses_scaling_lists raw : forall l i pos,
  scaling_lists_valid i l = true ->
  parses raw (read_scaling_lists BR (length l) i) pos (ser_scaling_lists l) (expected_scaling_lists i l).
Proof.
  induction l as [|o t IH]; intros i pos Hv;
    cbn [length read_scaling_lists ser_scaling_lists flat_map expected_scaling_lists].
  - apply parses_ret.
  - fold (ser_scaling_lists t). destruct o as [ds|]; cbn [scaling_lists_valid] in Hv.
    + apply andb_prop in Hv. destruct Hv as [Hv Ht]. apply andb_prop in Hv. destruct Hv as [Hd Hs].
      destruct (scaling_derive (scaling_size i) 8 8 ds) as [lst|] eqn:Hder; [|discriminate].
      cbn [ser_scaling_entry]. change (true :: flat_map se_bits ds) with (fl true ++ flat_map se_bits ds).
      rewrite <- app_assoc.
      preads.
      pbind ltac:(apply (parses_scaling_list raw (scaling_size i) 8 8 ds lst); [assumption|lia|assumption]).
      preads.
      plast ltac:(apply IH; assumption). apply parses_ret.
    + cbn [ser_scaling_entry]. change [false] with (fl false).
      preads.
      plast ltac:(apply IH; assumption). apply parses_ret.
Qed.

(* ------------------------------------------------------------------ validity, unpacked *)
Ltac split_all :=
  repeat match goal with
         | H : (_ && _) = true |- _ =>
             let H1 := fresh "V" in apply andb_prop in H; destruct H as [H H1]
         end.

(* what sps_valid says: its arithmetic conjuncts, each in the form its users need *)
Lemma sps_valid_bounds v : sps_valid v = true ->
  sps_nal_ref_idc v < 4 /\ profile_idc v < 256 /\ level_idc v < 256 /\ seq_parameter_set_id v <= 31
  /\ log2_max_frame_num_minus4 v <= 12 /\ log2_max_pic_order_cnt_lsb_minus4 v <= 12
  /\ lenN (offset_for_ref_frame v) <= 255
  /\ pic_width_in_mbs_minus1 v < 65536 /\ pic_height_in_map_units_minus1 v < 65536
  /\ frame_crop_left_offset v + frame_crop_right_offset v < 8589934592
  /\ frame_crop_top_offset v + frame_crop_bottom_offset v < 8589934592
  /\ crop_w v < pic_width_in_samples v /\ crop_h v < frame_height_in_samples v.
Proof. intros Hv. unfold sps_valid in Hv. split_all. unfold ue_ok in *. lia. Qed.

(* ... about the chroma / bit depth / scaling block of the profiles that carry it *)
Lemma sps_valid_high v : sps_valid v = true -> has_chroma_block (profile_idc v) = true ->
  chroma_format_idc v <= 3 /\ bit_depth_luma_minus8 v <= 6 /\ bit_depth_chroma_minus8 v <= 6
  /\ (seq_scaling_matrix_present_flag v = true ->
      lenN (seq_scaling_lists v) = (if chroma_format_idc v =? 3 then 12 else 8)
      /\ scaling_lists_valid 0 (seq_scaling_lists v) = true).
Proof.
  intros Hv Hp. unfold sps_valid in Hv. rewrite Hp in Hv. split_all.
  split; [lia|]. split; [lia|]. split; [lia|]. intros Hs.
  match goal with H : (if seq_scaling_matrix_present_flag v then _ else _) = true |- _ =>
    rewrite Hs in H; apply andb_prop in H; destruct H as [Hl Hsl] end.
  split; [lia | exact Hsl].
Qed.

Lemma sps_valid_vui v : sps_valid v = true -> vui_parameters_present_flag v = true ->
  vui_valid (vui_params v) = true.
Proof. intros Hv Hp. unfold sps_valid in Hv. rewrite Hp in Hv. split_all. assumption. Qed.

(* ------------------------------------------------------------------ the profile switch *)
Lemma is_high_profile_eq p : is_high_profile p = has_chroma_block p.
Proof. reflexivity. Qed.

Lemma parses_sps_high raw v pos :
  sps_valid v = true ->
  parses raw (parse_sps_high BR (profile_idc v)) pos (ser_sps_high v)
    (let hp := has_chroma_block (profile_idc v) in
     let smp := hp && seq_scaling_matrix_present_flag v in
     (eff_chroma_format_idc v, eff_separate_colour_plane v,
      (if hp then bit_depth_luma_minus8 v else 0), (if hp then bit_depth_chroma_minus8 v else 0),
      hp && qpprime_y_zero_transform_bypass_flag v, smp,
      if smp then expected_scaling_lists 0 (seq_scaling_lists v) else [])).
Proof.
  intros Hv. unfold parse_sps_high, ser_sps_high, eff_chroma_format_idc, eff_separate_colour_plane.
  rewrite is_high_profile_eq.
  destruct (has_chroma_block (profile_idc v)) eqn:Hhp; cbn [opt_bits andb]; cbv zeta; [|apply parses_ret].
  destruct (sps_valid_high v Hv Hhp) as (Hc & _ & _ & Hlists).
  preads.
  rewrite (u8_id (chroma_format_idc v)) by lia.
  preads.
  plast ltac:(apply (parses_opt raw _ (seq_scaling_matrix_present_flag v) _
                       (expected_scaling_lists 0 (seq_scaling_lists v)) []);
              intros Hs; destruct (Hlists Hs) as [Hlen Hsl];
              replace (if negb (chroma_format_idc v =? 3) then 8%nat else 12%nat)
                with (length (seq_scaling_lists v))
                by (unfold lenN in Hlen; destruct (chroma_format_idc v =? 3); cbn [negb]; lia);
              apply parses_scaling_lists; exact Hsl).
  apply parses_ret_eq.
  destruct (chroma_format_idc v =? 3), (seq_scaling_matrix_present_flag v); reflexivity.
Qed.

(* ------------------------------------------------------------------ the pic_order_cnt_type switch *)
Lemma parses_sps_poc raw v pos :
  sps_valid v = true ->
  parses raw (parse_sps_poc BR (pic_order_cnt_type v)) pos (ser_sps_poc v)
    (let p0 := pic_order_cnt_type v =? 0 in
     let p1 := pic_order_cnt_type v =? 1 in
     ((if p0 then log2_max_pic_order_cnt_lsb_minus4 v else 0),
      p1 && delta_pic_order_always_zero_flag v,
      (if p1 then se_code (offset_for_non_ref_pic v) else 0),
      (if p1 then se_code (offset_for_top_to_bottom_field v) else 0),
      (if p1 then map se_code (offset_for_ref_frame v) else []))).
Proof.
  intros Hv. destruct (sps_valid_bounds v Hv) as (_ & _ & _ & _ & _ & Hpoc & Hlen & _).
  unfold parse_sps_poc, ser_sps_poc. cbv zeta.
  destruct (pic_order_cnt_type v =? 0) eqn:H0.
  { apply N.eqb_eq in H0. rewrite H0. change (0 =? 1) with false. cbn [andb].
    pread. replace (12 <? log2_max_pic_order_cnt_lsb_minus4 v) with false by lia. apply parses_ret. }
  destruct (pic_order_cnt_type v =? 1) eqn:H1; cbn [andb].
  2:{ apply parses_ret. }
  preads.
  replace (255 <? lenN (offset_for_ref_frame v)) with false by lia.
  plast ltac:(apply (parses_rep_n raw (rd_ue BR) se_bits se_code (offset_for_ref_frame v));
              [reflexivity | unfold loop_bound; lia | intros; apply parses_ue_of_se]).
  apply parses_ret.
Qed.

(* ------------------------------------------------------------------ cropping *)
Lemma eff_chroma_le3 v : sps_valid v = true -> eff_chroma_format_idc v <= 3.
Proof.
  intros Hv. unfold eff_chroma_format_idc.
  destruct (has_chroma_block (profile_idc v)) eqn:Hp; [apply (sps_valid_high v Hv Hp) | lia].
Qed.

(* sps_valid keeps the cropped picture non-empty: the truncated subtractions in display_width /
   display_height are exact *)
Lemma display_plus_crop v : sps_valid v = true ->
  display_width v + crop_w v = pic_width_in_samples v
  /\ display_height v + crop_h v = frame_height_in_samples v
  /\ 0 < display_width v /\ 0 < display_height v.
Proof.
  intros Hv. destruct (sps_valid_bounds v Hv) as (_ & _ & _ & _ & _ & _ & _ & _ & _ & _ & _ & Hw & Hh).
  unfold display_width, display_height. lia.
Qed.

Lemma crop_unit_x_cases v : eff_chroma_format_idc v <= 3 ->
  crop_unit_x v = if eff_chroma_format_idc v =? 0 then 1 else if eff_chroma_format_idc v =? 1 then 2
                  else if eff_chroma_format_idc v =? 2 then 2 else 1.
Proof.
  unfold crop_unit_x, chroma_array_type, sub_width_c, eff_separate_colour_plane, eff_chroma_format_idc.
  destruct (has_chroma_block (profile_idc v)); cbn [andb]; [|reflexivity].
  intros Hc.
  destruct (chroma_format_idc v =? 3) eqn:E3; cbn [andb].
  - apply N.eqb_eq in E3. rewrite E3. destruct (separate_colour_plane_flag v); reflexivity.
  - destruct (chroma_format_idc v =? 0) eqn:E0; [reflexivity|].
    destruct (chroma_format_idc v =? 1) eqn:E1; [reflexivity|].
    destruct (chroma_format_idc v =? 2) eqn:E2; [reflexivity|]. lia.
Qed.

Lemma crop_unit_y_cases v : eff_chroma_format_idc v <= 3 ->
  crop_unit_y v = if eff_chroma_format_idc v =? 0 then 2 - fmo_n v
                  else if eff_chroma_format_idc v =? 1 then 2 * (2 - fmo_n v)
                  else if eff_chroma_format_idc v =? 2 then 1 * (2 - fmo_n v) else 1 * (2 - fmo_n v).
Proof.
  unfold crop_unit_y, chroma_array_type, sub_height_c, eff_separate_colour_plane, eff_chroma_format_idc.
  destruct (has_chroma_block (profile_idc v)); cbn [andb].
  - intros Hc.
    destruct (chroma_format_idc v =? 3) eqn:E3; cbn [andb].
    + apply N.eqb_eq in E3. rewrite E3. unfold fmo_n.
      destruct (separate_colour_plane_flag v), (frame_mbs_only_flag v); reflexivity.
    + destruct (chroma_format_idc v =? 0) eqn:E0; [reflexivity|].
      destruct (chroma_format_idc v =? 1) eqn:E1; [reflexivity|].
      destruct (chroma_format_idc v =? 2) eqn:E2; lia.
  - intros _. unfold fmo_n. destruct (frame_mbs_only_flag v); reflexivity.
Qed.

(* the table of the Go code, by chroma_format_idc alone, holds CropUnitX / CropUnitY *)
Lemma crop_units_table v : eff_chroma_format_idc v <= 3 ->
  (if eff_chroma_format_idc v =? 0 then (1, 2 - fmo_n v)
   else if eff_chroma_format_idc v =? 1 then (2, 2 * (2 - fmo_n v))
   else if eff_chroma_format_idc v =? 2 then (2, 1 * (2 - fmo_n v))
   else (1, 1 * (2 - fmo_n v))) = (crop_unit_x v, crop_unit_y v).
Proof.
  intros Hc. rewrite (crop_unit_x_cases v Hc), (crop_unit_y_cases v Hc).
  destruct (eff_chroma_format_idc v =? 0), (eff_chroma_format_idc v =? 1), (eff_chroma_format_idc v =? 2);
    reflexivity.
Qed.

(* Go's uint subtraction of a crop amount from the size it is taken from *)
Lemma crop_u64 size cu a b :
  cu * (a + b) < size -> a + b < 18446744073709551616 -> size < 18446744073709551616 ->
  u64 (size + 18446744073709551616 - u64 (u64 (a + b) * cu)) = size - cu * (a + b).
Proof.
  intros Hc Hab Hs. rewrite (u64_id (a + b)) by exact Hab.
  rewrite (N.mul_comm (a + b)), (u64_id (cu * (a + b))) by (apply N.lt_trans with (1 := Hc); exact Hs).
  replace (size + 18446744073709551616 - cu * (a + b))
    with (size - cu * (a + b) + 1 * 18446744073709551616) by lia.
  unfold u64. rewrite N.mod_add by discriminate. apply N.mod_small. lia.
Qed.

Lemma samples_lt v : sps_valid v = true ->
  pic_width_in_samples v < 18446744073709551616 /\ frame_height_in_samples v < 18446744073709551616.
Proof.
  intros Hv. destruct (sps_valid_bounds v Hv) as (_ & _ & _ & _ & _ & _ & _ & HW & HH & _).
  unfold pic_width_in_samples, frame_height_in_samples, fmo_n. destruct (frame_mbs_only_flag v); lia.
Qed.

Lemma parses_sps_crop raw v pos w h :
  sps_valid v = true ->
  w = pic_width_in_samples v -> h = frame_height_in_samples v ->
  parses raw (parse_sps_crop BR (eff_chroma_format_idc v) (frame_mbs_only_flag v) w h
                             (frame_cropping_flag v)) pos (ser_sps_crop v)
    (let cr := frame_cropping_flag v in
     ((if cr then frame_crop_left_offset v else 0), (if cr then frame_crop_right_offset v else 0),
      (if cr then frame_crop_top_offset v else 0), (if cr then frame_crop_bottom_offset v else 0),
      display_width v, display_height v)).
Proof.
  intros Hv -> ->. pose proof (eff_chroma_le3 v Hv) as Hc. destruct (samples_lt v Hv) as [Hw Hh].
  destruct (sps_valid_bounds v Hv) as (_ & _ & _ & _ & _ & _ & _ & _ & _ & Hlr & Htb & Hcw & Hch).
  unfold parse_sps_crop, ser_sps_crop, display_width, display_height. cbv zeta.
  unfold crop_w, crop_h in *.
  destruct (frame_cropping_flag v); cbn [opt_bits]; [|rewrite !N.sub_0_r; apply parses_ret].
  fold (fmo_n v).
  replace (if eff_chroma_format_idc v =? 0 then Some (1, 2 - fmo_n v) else _)
    with (Some (crop_unit_x v, crop_unit_y v)).
  2:{ rewrite <- (crop_units_table v Hc).
      destruct (eff_chroma_format_idc v =? 0) eqn:E0, (eff_chroma_format_idc v =? 1) eqn:E1,
        (eff_chroma_format_idc v =? 2) eqn:E2; try reflexivity.
      replace (eff_chroma_format_idc v =? 3) with true by lia. reflexivity. }
  preads. apply parses_ret_eq.
  rewrite (crop_u64 _ _ _ _ Hcw), (crop_u64 _ _ _ _ Hch) by lia. reflexivity.
Qed.

(* ------------------------------------------------------------------ seq_parameter_set_data *)
Lemma compat_bits_eq v :
  fl (constraint_set0_flag v) ++ fl (constraint_set1_flag v) ++ fl (constraint_set2_flag v)
  ++ fl (constraint_set3_flag v) ++ fl (constraint_set4_flag v) ++ fl (constraint_set5_flag v)
  ++ u 2 0 = u 8 (compat_byte v).
Proof.
  unfold compat_byte.
  destruct (constraint_set0_flag v), (constraint_set1_flag v), (constraint_set2_flag v),
    (constraint_set3_flag v), (constraint_set4_flag v), (constraint_set5_flag v); reflexivity.
Qed.

Lemma compat_byte_lt v : compat_byte v < 256.
Proof.
  unfold compat_byte.
  destruct (constraint_set0_flag v), (constraint_set1_flag v), (constraint_set2_flag v),
    (constraint_set3_flag v), (constraint_set4_flag v), (constraint_set5_flag v); reflexivity.
Qed.

(* the bits of the VUI that the parser consumes *)
Definition ser_vui_read (beyond : bool) (x : vui_syntax) : list bool :=
  ser_vui_sar x ++ (if beyond then ser_vui_rest x else []).

Definition ser_sps_read (beyond : bool) (v : sps_syntax) : list bool :=
  ser_sps_pre v ++ opt_bits (vui_parameters_present_flag v) (ser_vui_read beyond (vui_params v)).

Lemma parses_sps_data raw v pos beyond :
  sps_valid v = true ->
  (vui_parameters_present_flag v = true ->
   forall pos', parses raw (parse_vui BR beyond) pos' (ser_vui_read beyond (vui_params v))
                       (expected_vui beyond (vui_params v))) ->
  parses raw (parse_sps_data BR beyond) pos (ser_sps_read beyond v)
    (expected_sps_gen se_code
       (nbytes_at raw (pos + lenN (ser_sps_pre v)))
       (nbytes_at raw (pos + lenN (ser_sps_read beyond v))) beyond v).
Proof.
  intros Hv Hvui.
  destruct (sps_valid_bounds v Hv) as (_ & Hpr & Hlv & Hid & Hfn & _ & _ & HW & HH & _).
  pose proof (compat_byte_lt v) as Hcb.
  unfold parse_sps_data, ser_sps_read, ser_sps_pre.
  rewrite compat_bits_eq. rewrite <- !app_assoc.
  pbind ltac:(apply parses_rd; lia).
  pbind ltac:(apply parses_rd; lia).
  pbind ltac:(apply parses_rd; lia).
  preads.
  rewrite (u32_id (profile_idc v)), (u32_id (compat_byte v)), (u32_id (level_idc v)),
    (u32_id (seq_parameter_set_id v)) by lia.
  pbind ltac:(apply (parses_sps_high raw v _ Hv)).
  preads.
  replace (12 <? log2_max_frame_num_minus4 v) with false by lia.
  preads.
  pbind ltac:(apply (parses_sps_poc raw v _ Hv)).
  preads.
  pbind ltac:(apply (parses_sps_crop raw v _ _ _ Hv)).
  { unfold pic_width_in_samples. apply u64_id. lia. }
  { unfold frame_height_in_samples, fmo_n.
    destruct (frame_mbs_only_flag v); [rewrite u64_id by lia | rewrite (u64_id (_ * 16)), u64_id by lia]; lia. }
  preads.
  plast ltac:(apply (parses_opt raw _ (vui_parameters_present_flag v) (ser_vui_read beyond (vui_params v))
                       (Some (expected_vui beyond (vui_params v))) None);
              intros Hp; plast ltac:(apply Hvui; exact Hp); apply parses_ret).
  preads.
  apply parses_ret_eq.
  unfold expected_sps_gen. cbv zeta.
  f_equal.
  - destruct (frame_mbs_only_flag v); reflexivity.
  - f_equal. rewrite !lenN_app. lia.
  - f_equal. rewrite !lenN_app. lia.
Qed.

(* ------------------------------------------------------------------ the NAL unit *)
Lemma nal_header_u8 r t : r < 4 -> (t = 1 \/ t = 5 \/ t = 7 \/ t = 8) ->
  nal_header r t = u 8 (32 * r + t) /\ N.land (u8 (32 * r + t)) 31 = t /\ 32 * r + t < 2 ^ 8
  /\ N.land (N.shiftr (32 * r + t) 5) 3 = r.
Proof.
  intros Hr Ht.
  assert (Hr' : r = 0 \/ r = 1 \/ r = 2 \/ r = 3) by lia.
  destruct Hr' as [-> | [-> | [-> | ->]]]; destruct Ht as [-> | [-> | [-> | ->]]]; repeat split; reflexivity.
Qed.

Lemma ser_sps_split v beyond :
  ser_sps v = ser_sps_read beyond v
              ++ (if vui_parameters_present_flag v && negb beyond then ser_vui_rest (vui_params v) else []).
Proof.
  unfold ser_sps, ser_sps_read, ser_vui_read, ser_vui.
  destruct (vui_parameters_present_flag v), beyond; cbn [opt_bits andb negb];
    rewrite <- ?app_assoc, ?app_nil_r; reflexivity.
Qed.

Lemma sps_bits_read_eq v beyond :
  sps_bits_read beyond v = 8 + lenN (ser_sps_read beyond v).
Proof.
  unfold sps_bits_read, sps_bits_before_vui, ser_sps_read, ser_vui_read.
  destruct (vui_parameters_present_flag v), beyond; cbn [opt_bits];
    rewrite ?lenN_app; change (@lenN bool []) with 0; lia.
Qed.

(* what the model returns on every valid SPS (se(v) offsets come back as their codeNum) *)
Lemma parse_sps_br_valid v beyond :
  sps_valid v = true ->
  (vui_parameters_present_flag v = true ->
   forall raw pos', parses raw (parse_vui BR beyond) pos' (ser_vui_read beyond (vui_params v))
                           (expected_vui beyond (vui_params v))) ->
  parse_sps_br beyond (nalu_sps v) =
  Ok (expected_sps_gen se_code (nbytes_at (raw_sps v) (sps_bits_before_vui v))
                       (nbytes_at (raw_sps v) (sps_bits_read beyond v)) beyond v).
Proof.
  intros Hv Hvui.
  destruct (sps_valid_bounds v Hv) as (Hr & _).
  destruct (nal_header_u8 (sps_nal_ref_idc v) 7 Hr) as (Hh & Hland & Hlt & _); [auto|].
  assert (Hp : parses (raw_sps v) (parse_sps BR beyond) 0
                     (u 8 (32 * sps_nal_ref_idc v + 7) ++ ser_sps_read beyond v)
                     (expected_sps_gen se_code (nbytes_at (raw_sps v) (sps_bits_before_vui v))
                        (nbytes_at (raw_sps v) (sps_bits_read beyond v)) beyond v)).
  { unfold parse_sps.
    pbind ltac:(apply parses_rd; exact Hlt).
    rewrite Hland. change (negb (7 =? 7)) with false. cbv iota.
    rewrite lenN_u. unfold sps_bits_before_vui. rewrite sps_bits_read_eq.
    apply parses_sps_data; [exact Hv | intros Hp pos'; apply Hvui; exact Hp]. }
  unfold parse_sps_br, run, nalu_sps. rewrite binit_nalu. fold (raw_sps v).
  rewrite Hh, (ser_sps_split v beyond), <- !app_assoc.
  rewrite app_assoc. rewrite Hp. reflexivity.
Qed.

(* expected values under the guard that excludes the se(v)-read-as-ue(v) defect *)
Lemma offsets_zero_codes l : forallb (Z.eqb 0) l = true -> map se_code l = map z_as_uint l.
Proof.
  induction l as [|x t IH]; [reflexivity|]. cbn [forallb map]. intros H. apply andb_prop in H.
  destruct H as [Hx Ht]. apply Z.eqb_eq in Hx. subst x. rewrite (IH Ht). reflexivity.
Qed.

Lemma expected_gen_offsets_zero v nb0 nb1 beyond :
  sps_offsets_zero v = true ->
  expected_sps_gen se_code nb0 nb1 beyond v = expected_sps_gen z_as_uint nb0 nb1 beyond v.
Proof.
  unfold sps_offsets_zero, expected_sps_gen. cbv zeta.
  destruct (pic_order_cnt_type v =? 1); [|reflexivity].
  intros H. split_all.
  apply Z.eqb_eq in H. apply Z.eqb_eq in V0. rewrite H, V0, (offsets_zero_codes _ V). reflexivity.
Qed.

Lemma avc_sps_novui v beyond :
  sps_valid v = true -> sps_offsets_zero v = true -> vui_parameters_present_flag v = false ->
  parse_sps_br beyond (nalu_sps v) = Ok (expected_sps beyond v).
Proof.
  intros Hv Ho Hn. unfold expected_sps.
  rewrite <- expected_gen_offsets_zero by exact Ho.
  apply parse_sps_br_valid; [exact Hv | rewrite Hn; discriminate].
Qed.
