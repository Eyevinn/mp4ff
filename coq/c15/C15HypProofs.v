(* C15HypProofs.v — (1) the executable hypothesis predicates of C15HypModel are the predicates of the
   reader-tie theorems; hyp_tie_raw nalu = true exhibits the raw of the ties; (2) decoder invariant:
   EVERY SPS avc.ParseSPSNALUnit returns (any reader, any input) satisfies sps_narrow, so the
   sps_narrow hypothesis of the AVC slice ties holds of every map filled by the parser.  No axioms. *)
From V.lib Require Import Base.
From V.c13 Require Import C13Spec C13Model.
From V.c15 Require Import C15Model C15Spec C15HevcModel C15HevcSpec C15Hevc2Model C15Avc2Model C15Avc2DimsProofs C15HypModel
  C15TieBaseProofs C15TieAvcProofs C15TieAvc2Proofs C15TieHevcProofs C15TieHevcSpsProofs C15TieHevc2Proofs
  C15TieMainProofs.

Lemma hyp_zr_eq l : forall c, hyp_zr c l = zr c l.
Proof. induction l as [|b t IH]; intros c; [reflexivity|]. destruct b; cbn [hyp_zr zr]; rewrite IH; reflexivity. Qed.

Lemma hyp_zrun_ok_eq raw : hyp_zrun_ok raw = zrun_ok raw.
Proof. unfold hyp_zrun_ok, zrun_ok. apply hyp_zr_eq. Qed.

Lemma hyp_list_eqb_eq a : forall b, hyp_list_eqb a b = true -> a = b.
Proof.
  induction a as [|x a IH]; intros [|y b] H; cbn [hyp_list_eqb] in H; try discriminate; [reflexivity|].
  apply andb_true_iff in H. destruct H as [H1 H2]. apply N.eqb_eq in H1. subst y. f_equal. apply IH, H2.
Qed.

Lemma hyp_list_eqb_refl a : hyp_list_eqb a a = true.
Proof. induction a as [|x a IH]; [reflexivity|]. cbn [hyp_list_eqb]. rewrite N.eqb_refl, IH. reflexivity. Qed.

Lemma hyp_sps_narrow_eq s : hyp_sps_narrow s = sps_narrow s.      Proof. reflexivity. Qed.
Lemma hyp_pps_narrow_eq p : hyp_pps_narrow p = pps_narrow p.      Proof. reflexivity. Qed.
Lemma hyp_hsps_narrow_eq s : hyp_hsps_narrow s = hsps_narrow s.   Proof. reflexivity. Qed.
Lemma hyp_hsps_depths_ok_eq s : hyp_hsps_depths_ok s = hsps_depths_ok s. Proof. reflexivity. Qed.

(* the executable predicate exhibits the raw of the tie theorems, and is exact *)
Lemma hyp_tie_raw_sound nalu : hyp_tie_raw nalu = true ->
  exists raw, bytes_ok raw = true /\ zrun_ok raw = true /\ nalu = escape raw.
Proof.
  unfold hyp_tie_raw. intros H. apply andb_true_iff in H. destruct H as [H H3].
  apply andb_true_iff in H. destruct H as [H1 H2]. exists (unescape nalu).
  rewrite hyp_zrun_ok_eq in H2. apply hyp_list_eqb_eq in H3. auto.
Qed.

Section Inv.
  Context {St : Type} (R : reader St).

  (* one bind: the first computation answered Ok (the other answers end the parser without a result) *)
  Ltac step H :=
    unfold bind at 1 in H;
    match type of H with
    | match ?m with _ => _ end = _ => destruct m as [[? ?]| | |] eqn:?; try discriminate H
    end.
  Ltac tuples :=
    repeat match goal with x : (_ * _)%type |- _ => destruct x end.

  Lemma parse_sps_poc_narrow pt st l dz o1 o2 cyc st' :
    parse_sps_poc R pt st = Ok ((l, dz, o1, o2, cyc), st') -> l <= 12.
  Proof.
    unfold parse_sps_poc. intros H.
    destruct (pt =? 0).
    - step H. destruct (12 <? n) eqn:E; [discriminate H|]. unfold ret in H. injection H as -> _ _ _ _ _.
      apply N.ltb_ge in E. exact E.
    - destruct (pt =? 1).
      + step H. step H. step H. step H.
        match type of H with (if ?c then _ else _) _ = _ => destruct c; [discriminate H|] end.
        step H. unfold ret in H. injection H as <- _ _ _ _ _. lia.
      + unfold ret in H. injection H as <- _ _ _ _ _. lia.
  Qed.

  Lemma parse_sps_data_narrow beyond st s st' :
    parse_sps_data R beyond st = Ok (s, st') -> sps_narrow s = true.
  Proof.
    unfold parse_sps_data. intros H.
    step H. step H. step H. step H. step H. tuples.
    step H.
    match type of H with (if 12 <? ?x then _ else _) _ = _ => destruct (12 <? x) eqn:El; [discriminate H|] end.
    apply N.ltb_ge in El.
    step H. step H. tuples.
    match goal with E : parse_sps_poc _ _ _ = Ok _ |- _ => apply parse_sps_poc_narrow in E; rename E into Ep end.
    step H. step H. step H. step H. step H. step H. step H. step H. step H. tuples.
    step H. step H. step H. step H. step H.
    match type of H with (if ?c then _ else _) _ = _ => destruct c; [discriminate H|] end.
    unfold ret in H. injection H as <- _.
    unfold sps_narrow. cbn [sps_log2_max_frame_num_minus4 sps_log2_max_pic_order_cnt_lsb_minus4].
    apply andb_true_iff. split; apply N.leb_le; assumption.
  Qed.

  Lemma parse_sps_narrow beyond st s st' :
    parse_sps R beyond st = Ok (s, st') -> sps_narrow s = true.
  Proof.
    unfold parse_sps. intros H. step H.
    match type of H with (if ?c then _ else _) _ = _ => destruct c; [discriminate H|] end.
    eapply parse_sps_data_narrow, H.
  Qed.
End Inv.

(* for both instances: whatever the input *)
Lemma sps_narrow_parsed_er beyond nalu s : parse_sps_er beyond nalu = Ok s -> sps_narrow s = true.
Proof.
  unfold parse_sps_er, run. intros H.
  destruct (parse_sps ER beyond (rinit nalu)) as [[a s']| | |] eqn:E; try discriminate H.
  injection H as ->. eapply parse_sps_narrow, E.
Qed.
Lemma sps_narrow_parsed_br beyond nalu s : parse_sps_br beyond nalu = Ok s -> sps_narrow s = true.
Proof.
  unfold parse_sps_br, run. intros H.
  destruct (parse_sps BR beyond (binit nalu)) as [[a s']| | |] eqn:E; try discriminate H.
  injection H as ->. eapply parse_sps_narrow, E.
Qed.

(* a map every entry of which was returned by the SPS parser (on whatever bytes): spsMap as the
   callers of avc.ParseSliceHeader fill it *)
Definition sps_map_parsed (spsmap : N -> option sps) : Prop :=
  forall id s, spsmap id = Some s ->
    exists beyond nalu, parse_sps_er beyond nalu = Ok s \/ parse_sps_br beyond nalu = Ok s.

Lemma sps_map_parsed_narrow spsmap : sps_map_parsed spsmap ->
  forall id s, spsmap id = Some s -> sps_narrow s = true.
Proof.
  intros Hm id s E. destruct (Hm id s E) as (b & n & [H | H]);
    [eapply sps_narrow_parsed_er, H | eapply sps_narrow_parsed_br, H].
Qed.

(* the ties in the form the driver evaluates: hypothesis = executable predicate on the NAL unit *)
Lemma tie_applies_avc_sps nalu beyond : hyp_tie_raw nalu = true ->
  parse_sps_er beyond nalu = parse_sps_br beyond nalu.
Proof. intros H. destruct (hyp_tie_raw_sound _ H) as (raw & Hb & Hz & ->). apply tie_avc_sps; assumption. Qed.

Lemma tie_applies_avc_pps nalu spsmap : hyp_tie_raw nalu = true ->
  parse_pps_er spsmap nalu = parse_pps_br spsmap nalu.
Proof. intros H. destruct (hyp_tie_raw_sound _ H) as (raw & Hb & Hz & ->). apply tie_avc_pps; assumption. Qed.

Lemma tie_applies_avc_slice2 nalu spsmap ppsmap : hyp_tie_raw nalu = true ->
  (forall id s, spsmap id = Some s -> hyp_sps_narrow s = true) ->
  parse_slice2_er spsmap ppsmap nalu = parse_slice2_br spsmap ppsmap nalu.
Proof. intros H Hn. destruct (hyp_tie_raw_sound _ H) as (raw & Hb & Hz & ->). apply tie_avc_slice2; assumption. Qed.

Lemma tie_applies_hevc_pps nalu spsmap : hyp_tie_raw nalu = true ->
  hparse_pps_er spsmap nalu = hparse_pps_br spsmap nalu.
Proof. intros H. destruct (hyp_tie_raw_sound _ H) as (raw & Hb & Hz & ->). apply tie_hevc_pps; assumption. Qed.

Lemma tie_applies_hevc_pps2 nalu spsmap : hyp_tie_raw nalu = true ->
  hparse_pps2_er spsmap nalu = hparse_pps2_br spsmap nalu.
Proof. intros H. destruct (hyp_tie_raw_sound _ H) as (raw & Hb & Hz & ->). apply tie_hevc_pps2; assumption. Qed.

Lemma tie_applies_hevc_slice nalu spsmap ppsmap : hyp_tie_raw nalu = true ->
  (forall id s, spsmap id = Some s -> hyp_hsps_narrow s = true) ->
  hparse_slice_er spsmap ppsmap nalu = hparse_slice_br spsmap ppsmap nalu.
Proof. intros H Hn. destruct (hyp_tie_raw_sound _ H) as (raw & Hb & Hz & ->). apply tie_hevc_slice; assumption. Qed.

Lemma tie_applies_hevc_sps nalu s : hyp_tie_raw nalu = true ->
  hparse_sps_br nalu = Ok s -> hyp_hsps_depths_ok s = true -> hparse_sps_er nalu = Ok s.
Proof. intros H Hp Hd. destruct (hyp_tie_raw_sound _ H) as (raw & Hb & Hz & ->). apply tie_hevc_sps; assumption. Qed.

(* the predicate is exact: it holds of escape raw for every raw within the ties' hypotheses *)
Lemma hyp_tie_raw_complete raw : bytes_ok raw = true -> zrun_ok raw = true ->
  unescape (escape raw) = raw -> hyp_tie_raw (escape raw) = true.
Proof.
  intros Hb Hz Hu. unfold hyp_tie_raw. rewrite Hu, Hb, hyp_zrun_ok_eq, Hz, hyp_list_eqb_refl. reflexivity.
Qed.

Lemma hsps_narrow_valid v : hsps_valid v = true -> hsps_narrow (expected_hsps v) = true.
Proof.
  intros H. apply hsps_valid_depths in H. unfold hsps_depths_ok in H.
  apply andb_true_iff in H. destruct H as [_ H]. exact H.
Qed.
