(* C15AvcSliceProofs.v — the pieces of slice_header() (7.3.3): each conditional block and loop of
   ParseSliceHeader (model, ideal bit reader) reads back what the independent serialiser wrote; what the
   parser consults in the parameter sets; what slice_valid says; the header fits in 2^32 bytes.  The
   header as a whole is in C15Avc2Proofs. *)
From V.lib Require Import Base.
From V.c13 Require Import C13Spec C13Model.
From V.c15 Require Import C15Model C15Spec C15BitProofs C15AvcSpsProofs C15AvcVuiProofs C15AvcPpsProofs
  C15Avc2Model C15Avc2DimsProofs.

(* ------------------------------------------------------------------ small tools *)
(* optional element whose value is given in its final (guarded) form *)
Lemma parses_opt' {A} raw (p : bstate -> res (A * bstate)) (c : bool) e (a d : A) pos :
  (c = true -> parses raw p pos e a) -> (c = false -> d = a) ->
  parses raw (if c then p else ret d) pos (opt_bits c e) a.
Proof. destruct c; intros H1 H2; [apply H1; reflexivity | rewrite (H2 eq_refl); apply parses_ret]. Qed.

Lemma i32_id k : se_ok k = true -> i32 k = k.
Proof. unfold se_ok, int32_ok, i32. intros H. lia. Qed.

Lemma i32_zz (c : bool) k : se_ok k = true -> i32 (if c then k else 0%Z) = (if c then k else 0%Z).
Proof. intros H. destruct c; [apply i32_id; exact H | reflexivity]. Qed.

Lemma u32_n (c : bool) x : x < 4294967296 -> u32 (if c then x else 0) = (if c then x else 0).
Proof. intros H. destruct c; [apply u32_id; exact H | reflexivity]. Qed.

Lemma ue_ok_lt x : ue_ok x = true -> x < 4294967296.
Proof. unfold ue_ok. lia. Qed.

(* ------------------------------------------------------------------ ref_pic_list_modification *)
Lemma parses_rplm_loop raw : forall l fuel i ad lt av pos,
  forallb rplm_entry_ok l = true -> (length l < fuel)%nat ->
  parses raw (rplm_loop BR fuel (i, ad, lt, av)) pos (flat_map ser_rplm_entry l ++ ue_bits 3)
    (3, last_rplm (fun i => (i =? 0) || (i =? 1)) l ad, last_rplm (fun i => i =? 2) l lt, av).
Proof.
  induction l as [|e t IH]; intros fuel i ad lt av pos Hok Hf;
    (destruct fuel as [|f]; [cbn [length] in Hf; lia|]); cbn [rplm_loop flat_map app].
  - plast ltac:(apply parses_ue). apply parses_ret.
  - cbn [forallb] in Hok. apply andb_prop in Hok. destruct Hok as [He Ht].
    destruct e as [i' x]. unfold rplm_entry_ok in He. cbn [fst snd] in He.
    apply andb_prop in He. destruct He as [Hi Hx]. apply ue_ok_lt in Hx.
    unfold ser_rplm_entry. cbn [fst snd length] in *. rewrite <- !app_assoc.
    pread. rewrite (u32_id i') by lia.
    assert (C : i' = 0 \/ i' = 1 \/ i' = 2) by lia.
    destruct C as [-> | [-> | ->]]; cbn [N.eqb Pos.eqb orb]; preads;
      rewrite (u32_id x) by exact Hx; (apply IH; [exact Ht | lia]).
Qed.

(* flag + loop, as it appears twice in ParseSliceHeader *)
Lemma parses_rplm_block raw (c flag : bool) l i ad lt av pos :
  forallb rplm_entry_ok l = true -> lenN l <= 1000 ->
  parses raw
    (if c then
       bind (rd_flag BR) (fun f =>
       bind (if f then rplm_loop BR loop_fuel (i, ad, lt, av) else ret (i, ad, lt, av)) (fun stt =>
       ret (f, stt)))
     else ret (false, (i, ad, lt, av)))
    pos (opt_bits c (ser_rplm flag l))
    (c && flag,
     ((if c && flag then 3 else i),
      last_rplm (fun i => (i =? 0) || (i =? 1)) (if c && flag then l else []) ad,
      last_rplm (fun i => i =? 2) (if c && flag then l else []) lt, av)).
Proof.
  intros Hok Hlen.
  apply parses_opt'; [intros -> | intros ->; reflexivity]. cbn [andb].
  unfold ser_rplm.
  preads.
  destruct flag; cbn [opt_bits].
  - plast ltac:(apply parses_rplm_loop; [exact Hok | unfold loop_fuel, loop_bound, lenN in *; lia]).
    apply parses_ret.
  - apply parses_bind_ret. apply parses_ret.
Qed.

(* ------------------------------------------------------------------ dec_ref_pic_marking *)
Definition last_mm (sel : N -> bool) (proj : N * N * N -> N) (l : list (N * N * N)) (d : N) : N :=
  fold_left (fun acc e => if sel (fst (fst e)) then proj e else acc) l d.

Lemma last_mmco_eq v sel proj d : last_mmco v sel proj d = last_mm sel proj (mmco_run v) d.
Proof. reflexivity. Qed.

Lemma parses_mmco_loop raw : forall l fuel df lt fi mx pos,
  forallb mmco_ok l = true -> (length l < fuel)%nat ->
  parses raw (mmco_loop BR fuel (df, lt, fi, mx)) pos (flat_map ser_mmco l ++ ue_bits 0)
    (last_mm (fun op => (op =? 1) || (op =? 3)) (fun e => snd (fst e)) l df,
     last_mm (fun op => op =? 2) (fun e => snd (fst e)) l lt,
     last_mm (fun op => (op =? 3) || (op =? 6)) (fun e => if fst (fst e) =? 3 then snd e else snd (fst e)) l fi,
     last_mm (fun op => op =? 4) (fun e => snd (fst e)) l mx).
Proof.
  induction l as [|e t IH]; intros fuel df lt fi mx pos Hok Hf;
    (destruct fuel as [|f]; [cbn [length] in Hf; lia|]); cbn [mmco_loop flat_map app].
  - plast ltac:(apply parses_ue). cbn [N.eqb Pos.eqb orb].
    apply parses_bind_ret. cbv beta iota. apply parses_ret.
  - cbn [forallb] in Hok. apply andb_prop in Hok. destruct Hok as [He Ht].
    destruct e as [[op a] b]. unfold mmco_ok in He.
    apply andb_prop in He. destruct He as [He Hb]. apply andb_prop in He. destruct He as [He Ha].
    apply andb_prop in He. destruct He as [Hop1 Hop6].
    apply ue_ok_lt in Ha. apply ue_ok_lt in Hb.
    cbn [length] in Hf.
    assert (C : op = 1 \/ op = 2 \/ op = 3 \/ op = 4 \/ op = 5 \/ op = 6) by lia.
    unfold ser_mmco.
    (* every operation: its one or two operands, then the error check and the next iteration *)
    destruct C as [-> | [-> | [-> | [-> | [-> | ->]]]]];
      cbn [N.eqb Pos.eqb orb opt_bits app]; rewrite <- ?app_assoc, ?app_nil_r;
      repeat first [pread | progress cbn [N.eqb Pos.eqb orb]];
      rewrite ?(u32_id a), ?(u32_id b) by assumption; (apply IH; [exact Ht | lia]).
Qed.

(* ------------------------------------------------------------------ pred_weight_table *)
Lemma parses_pwt_chroma raw (cat : bool) (ch : option (Z * Z * Z * Z)) pos :
  parses raw
    (if cat then
       bind (rd_flag BR) (fun cw =>
       if cw then bind (rd_ue BR) (fun a => bind (rd_ue BR) (fun b => bind (rd_ue BR) (fun c =>
                  bind (rd_ue BR) (fun d => ret tt))))
       else ret tt)
     else ret tt) pos
    (opt_bits cat
       (match ch with
        | None => fl false
        | Some (w0, o0, w1, o1) => fl true ++ se_bits w0 ++ se_bits o0 ++ se_bits w1 ++ se_bits o1
        end)) tt.
Proof.
  destruct cat; cbn [opt_bits]; [|apply parses_ret].
  destruct ch as [[[[a b] c] d]|].
  - preads.
  - preads.
Qed.

Lemma parses_pwt_entry raw sp e pos :
  parses raw (pwt_entry BR (sl_cat_nonzero sp)) pos (ser_pwt_entry sp e) tt.
Proof.
  unfold pwt_entry, ser_pwt_entry.
  destruct e as [lu ch]. cbn [pwt_luma pwt_chroma].
  destruct lu as [[w o]|].
  - rewrite <- !app_assoc. preads. apply parses_pwt_chroma.
  - preads. apply parses_pwt_chroma.
Qed.

(* ------------------------------------------------------------------ what the slice parser consults in the parameter sets *)
Definition sps_view (s : sps) (sp : sps_syntax) : Prop :=
  sps_separate_colour_plane s = eff_separate_colour_plane sp
  /\ sps_chroma_format_idc s = eff_chroma_format_idc sp
  /\ sps_log2_max_frame_num_minus4 s = log2_max_frame_num_minus4 sp
  /\ sps_frame_mbs_only s = frame_mbs_only_flag sp
  /\ sps_pic_order_cnt_type s = pic_order_cnt_type sp
  /\ sps_log2_max_pic_order_cnt_lsb_minus4 s
     = (if pic_order_cnt_type sp =? 0 then log2_max_pic_order_cnt_lsb_minus4 sp else 0)
  /\ sps_delta_pic_order_always_zero s
     = ((pic_order_cnt_type sp =? 1) && delta_pic_order_always_zero_flag sp)
  /\ sps_pic_size_in_map_units s = pic_size_in_map_units sp.

Definition pps_view (p : pps) (pp : pps_syntax) : Prop :=
  pps_sps_id p = pps_seq_parameter_set_id pp
  /\ pps_bottom_field_pic_order p = bottom_field_pic_order_in_frame_present_flag pp
  /\ pps_redundant_pic_cnt_present p = redundant_pic_cnt_present_flag pp
  /\ pps_num_ref_idx_l0_default_active_minus1 p = num_ref_idx_l0_default_active_minus1 pp
  /\ pps_num_ref_idx_l1_default_active_minus1 p = num_ref_idx_l1_default_active_minus1 pp
  /\ pps_weighted_pred p = weighted_pred_flag pp
  /\ pps_weighted_bipred_idc p = weighted_bipred_idc pp
  /\ pps_entropy_coding_mode p = entropy_coding_mode_flag pp
  /\ pps_deblocking_filter_control_present p = deblocking_filter_control_present_flag pp
  /\ ((0 <? pps_num_slice_groups_minus1 p) && (3 <=? pps_slice_group_map_type p)
      && (pps_slice_group_map_type p <=? 5)) = sl_has_fmo_cycle pp
  /\ (sl_has_fmo_cycle pp = true ->
      pps_slice_group_change_rate_minus1 p = slice_group_change_rate_minus1 pp).

Lemma sps_view_expected offmap nb0 nb1 beyond sp :
  sps_valid sp = true -> sps_view (expected_sps_gen offmap nb0 nb1 beyond sp) sp.
Proof. intros Hv. repeat split. apply pic_size_expected. exact Hv. Qed.

Lemma pps_view_expected pp : pps_view (expected_pps pp) pp.
Proof.
  unfold pps_view, expected_pps, sl_has_fmo_cycle. cbn. repeat split.
  - destruct (0 <? num_slice_groups_minus1 pp); reflexivity.
  - intros H. apply andb_prop in H. destruct H as [H H5]. apply andb_prop in H. destruct H as [H0 H3].
    rewrite H0. cbn [andb].
    replace ((slice_group_map_type pp =? 3) || (slice_group_map_type pp =? 4) || (slice_group_map_type pp =? 5))
      with true by lia.
    reflexivity.
Qed.

(* ------------------------------------------------------------------ the conditional blocks of slice_header() *)
Lemma parses_fld raw (nfmo fpf bff : bool) pos :
  parses raw
    (if nfmo then bind (rd_flag BR) (fun f => bind (if f then rd_flag BR else ret false) (fun b => ret (f, b)))
     else ret (false, false)) pos
    (opt_bits nfmo (fl fpf ++ opt_bits fpf (fl bff)))
    (nfmo && fpf, nfmo && fpf && bff).
Proof.
  destruct nfmo; cbn [opt_bits andb]; [|apply parses_ret].
  pread. destruct fpf; cbn [opt_bits andb]; preads.
Qed.

Lemma parses_poc raw poc L dz (bd : bool) lsb dbot d0 d1 pos :
  lsb < 2 ^ (L + 4) ->
  parses raw
    (if poc =? 0 then
       bind (rd BR ((if poc =? 0 then L else 0) + 4)) (fun lsb =>
       bind (if bd then rd_se BR else ret 0%Z) (fun d => ret (lsb, d, 0%Z, 0%Z)))
     else if (poc =? 1) && negb ((poc =? 1) && dz) then
       bind (rd_se BR) (fun d0 => bind (if bd then rd_se BR else ret 0%Z) (fun d1 => ret (0, 0%Z, d0, d1)))
     else ret (0, 0%Z, 0%Z, 0%Z)) pos
    (opt_bits (poc =? 0) (u (L + 4) lsb ++ opt_bits bd (se_bits dbot))
     ++ opt_bits ((poc =? 1) && negb dz) (se_bits d0 ++ opt_bits bd (se_bits d1)))
    ((if poc =? 0 then lsb else 0), (if (poc =? 0) && bd then dbot else 0%Z),
     (if (poc =? 1) && negb dz then d0 else 0%Z), (if (poc =? 1) && negb dz && bd then d1 else 0%Z)).
Proof.
  intros Hl.
  destruct (poc =? 0) eqn:E0.
  - assert (E1 : (poc =? 1) = false) by lia. rewrite E1. cbn [andb opt_bits]. rewrite app_nil_r.
    pbind ltac:(apply parses_rd; exact Hl). preads.
  - cbn [opt_bits app andb].
    replace ((poc =? 1) && negb ((poc =? 1) && dz)) with ((poc =? 1) && negb dz)
      by (destruct (poc =? 1), dz; reflexivity).
    destruct ((poc =? 1) && negb dz); cbn [opt_bits andb]; [|apply parses_ret].
    preads.
Qed.

Lemma parses_nri raw (has tB ovf : bool) l0 l1 d0 d1 pos :
  l0 <= 31 -> l1 <= 31 -> d0 <= 31 -> d1 <= 31 ->
  parses raw
    (if has then
       bind (rd_flag BR) (fun ov =>
       if ov then bind (rd_ue BR) (fun l0 => bind (if tB then rd_ue BR else ret 0) (fun l1 =>
                  ret (ov, u32 l0, u32 l1)))
       else ret (ov, u32 d0, u32 d1))
     else ret (false, 0, 0)) pos
    (opt_bits has (fl ovf ++ opt_bits ovf (ue_bits l0 ++ opt_bits tB (ue_bits l1))))
    (has && ovf, (if has then (if has && ovf then l0 else d0) else 0),
     (if has then (if has && ovf then (if tB then l1 else 0) else d1) else 0)).
Proof.
  intros H0 H1 H2 H3.
  destruct has; cbn [opt_bits andb]; [|apply parses_ret].
  pread. destruct ovf; cbn [opt_bits].
  - preads. rewrite (u32_id l0) by lia. rewrite u32_n by lia. apply parses_ret.
  - rewrite (u32_id d0), (u32_id d1) by lia. apply parses_ret.
Qed.

Lemma parses_pwt_block raw sp (hp tB : bool) l0 l1 ld cd (w0 w1 : list pwt_entry_syntax) pos :
  ue_ok ld = true -> ue_ok cd = true -> l0 <= 31 -> l1 <= 31 ->
  (hp = true -> lenN w0 = l0 + 1 /\ (tB = true -> lenN w1 = l1 + 1)) ->
  parses raw
    (if hp then
       bind (rd_ue BR) (fun ld =>
       bind (if sl_cat_nonzero sp then rd_ue BR else ret 0) (fun cd =>
       bind (rep_break_n BR (l0 + 1) (pwt_entry BR (sl_cat_nonzero sp))) (fun x0 =>
       bind (if tB then rep_break_n BR (l1 + 1) (pwt_entry BR (sl_cat_nonzero sp)) else ret []) (fun x1 =>
       ret (u32 ld, u32 cd)))))
     else ret (0, 0)) pos
    (opt_bits hp (ue_bits ld ++ opt_bits (sl_cat_nonzero sp) (ue_bits cd)
                  ++ flat_map (ser_pwt_entry sp) w0 ++ opt_bits tB (flat_map (ser_pwt_entry sp) w1)))
    ((if hp then ld else 0), (if hp && sl_cat_nonzero sp then cd else 0)).
Proof.
  intros Hld Hcd Hl0 Hl1 Hlen. apply ue_ok_lt in Hld. apply ue_ok_lt in Hcd.
  destruct hp; cbn [opt_bits andb]; [|apply parses_ret].
  destruct (Hlen eq_refl) as (Hw0 & Hw1).
  preads.
  pbind ltac:(apply (parses_rep_break_n raw _ (ser_pwt_entry sp) (fun _ => tt) w0);
              [lia | unfold loop_bound; lia | intros; apply parses_pwt_entry]).
  eapply parses_bind_nil.
  { apply (parses_opt' raw _ tB _ (if tB then map (fun _ : pwt_entry_syntax => tt) w1 else []) []).
    - intros ->. specialize (Hw1 eq_refl).
      apply (parses_rep_break_n raw _ (ser_pwt_entry sp) (fun _ => tt) w1);
        [lia | unfold loop_bound; lia | intros; apply parses_pwt_entry].
    - intros ->. reflexivity. }
  cbv beta.
  rewrite (u32_id ld) by exact Hld. rewrite u32_n by exact Hcd. apply parses_ret.
Qed.

Lemma parses_marking raw (mk idr a b ad : bool) l ltpn0 pos :
  forallb mmco_ok l = true -> lenN l <= 1000 ->
  parses raw
    (if mk then
       if idr then bind (rd_flag BR) (fun a => bind (rd_flag BR) (fun b => ret (a, b, false, (0, ltpn0, 0, 0))))
       else bind (rd_flag BR) (fun ad =>
            bind (if ad then mmco_loop BR loop_fuel (0, ltpn0, 0, 0) else ret (0, ltpn0, 0, 0)) (fun stt =>
            ret (false, false, ad, stt)))
     else ret (false, false, false, (0, ltpn0, 0, 0))) pos
    (opt_bits mk (if idr then fl a ++ fl b
                  else fl ad ++ opt_bits ad (flat_map ser_mmco l ++ ue_bits 0)))
    (mk && idr && a, mk && idr && b, mk && negb idr && ad,
     (last_mm (fun op => (op =? 1) || (op =? 3)) (fun e => snd (fst e))
              (if mk && negb idr && ad then l else []) 0,
      last_mm (fun op => op =? 2) (fun e => snd (fst e)) (if mk && negb idr && ad then l else []) ltpn0,
      last_mm (fun op => (op =? 3) || (op =? 6)) (fun e => if fst (fst e) =? 3 then snd e else snd (fst e))
              (if mk && negb idr && ad then l else []) 0,
      last_mm (fun op => op =? 4) (fun e => snd (fst e)) (if mk && negb idr && ad then l else []) 0)).
Proof.
  intros Hok Hlen.
  destruct mk; cbn [opt_bits andb]; [|apply parses_ret].
  destruct idr; cbn [negb andb].
  - preads.
  - pread. destruct ad; cbn [opt_bits]; [|preads].
    plast ltac:(apply parses_mmco_loop; [exact Hok | unfold loop_fuel, loop_bound, lenN in *; lia]).
    apply parses_ret.
Qed.

Lemma parses_qs raw (tSP tSI sw : bool) qsd pos :
  parses raw
    (if tSP || tSI then
       bind (if tSP then rd_flag BR else ret false) (fun sw => bind (rd_se BR) (fun d => ret (sw, d)))
     else ret (false, 0%Z)) pos
    (opt_bits (tSP || tSI) (opt_bits tSP (fl sw) ++ se_bits qsd))
    (tSP && sw, (if tSP || tSI then qsd else 0%Z)).
Proof.
  destruct tSP; cbn [orb opt_bits andb]; [preads|].
  destruct tSI; cbn [opt_bits app]; preads.
Qed.

Lemma parses_db raw (dfc : bool) idc a b pos :
  idc <= 2 ->
  parses raw
    (if dfc then
       bind (rd_ue BR) (fun idc =>
       if negb (u32 idc =? 1) then bind (rd_se BR) (fun a => bind (rd_se BR) (fun b => ret (u32 idc, a, b)))
       else ret (u32 idc, 0%Z, 0%Z))
     else ret (0, 0%Z, 0%Z)) pos
    (opt_bits dfc (ue_bits idc ++ opt_bits (negb (idc =? 1)) (se_bits a ++ se_bits b)))
    ((if dfc then idc else 0), (if dfc && negb (idc =? 1) then a else 0%Z),
     (if dfc && negb (idc =? 1) then b else 0%Z)).
Proof.
  intros Hi.
  destruct dfc; cbn [opt_bits andb]; [|apply parses_ret].
  pread. rewrite (u32_id idc) by lia.
  destruct (negb (idc =? 1)); cbn [opt_bits]; preads.
Qed.

(* ------------------------------------------------------------------ slice_header() *)
Lemma has_pwt_has_ref (wp wb tP tSP tB : bool) :
  wp && (tP || tSP) || wb && tB = true -> tP || tSP || tB = true.
Proof. destruct wp, wb, tP, tSP, tB; cbn; intros H; try reflexivity; discriminate. Qed.

Lemma pow_le_16 L : L <= 12 -> 2 ^ (L + 4) <= 65536.
Proof. intros HL. change 65536 with (2 ^ 16). apply N.pow_le_mono_r; lia. Qed.

Lemma if3_or (a b : bool) : (if b then 3 else if a then 3 else 0) = (if a || b then 3 else 0).
Proof. destruct a, b; reflexivity. Qed.

Lemma last_rplm_app sel a b d : last_rplm sel (a ++ b) d = last_rplm sel b (last_rplm sel a d).
Proof. unfold last_rplm. apply fold_left_app. Qed.

(* the three elements every slice header starts with; the PPS is looked up right after them *)
Lemma ser_slice_header_start sp pp v : exists T,
  ser_slice_header sp pp v
  = ue_bits (first_mb_in_slice v) ++ ue_bits (slice_type v) ++ ue_bits (sl_pic_parameter_set_id v) ++ T.
Proof. eexists. reflexivity. Qed.

(* ------------------------------------------------------------------ what slice_valid says *)
(* its arithmetic conjuncts, each in the form its user needs *)
Lemma slice_valid_bounds sp pp v : slice_valid sp pp v = true ->
  sl_nal_ref_idc v < 4 /\ (sl_nal_unit_type v = 1 \/ sl_nal_unit_type v = 5)
  /\ first_mb_in_slice v < 4294967295
  /\ sl_pic_parameter_set_id v = pic_parameter_set_id pp
  /\ colour_plane_id v < 4
  /\ frame_num v < 2 ^ (log2_max_frame_num_minus4 sp + 4)
  /\ idr_pic_id v < 65536
  /\ pic_order_cnt_lsb v < 2 ^ (log2_max_pic_order_cnt_lsb_minus4 sp + 4)
  /\ redundant_pic_cnt v <= 127
  /\ num_ref_idx_l0_active_minus1 v <= 31 /\ num_ref_idx_l1_active_minus1 v <= 31
  /\ lenN (rplm_l0 v) <= 1000 /\ lenN (rplm_l1 v) <= 1000 /\ lenN (mmco v) <= 1000
  /\ cabac_init_idc v <= 2 /\ disable_deblocking_filter_idc v <= 2
  /\ slice_group_change_cycle v < 2 ^ slice_group_change_cycle_bits sp pp.
Proof. intros Hv. unfold slice_valid in Hv. split_all. unfold ue_ok in *. lia. Qed.

(* ... and the others *)
Lemma slice_valid_items sp pp v : slice_valid sp pp v = true ->
  (se_ok (delta_pic_order_cnt_bottom v) = true /\ se_ok (delta_pic_order_cnt0 v) = true
   /\ se_ok (delta_pic_order_cnt1 v) = true /\ se_ok (slice_qp_delta v) = true /\ se_ok (slice_qs_delta v) = true
   /\ se_ok (slice_alpha_c0_offset_div2 v) = true /\ se_ok (slice_beta_offset_div2 v) = true)
  /\ forallb rplm_entry_ok (rplm_l0 v) = true /\ forallb rplm_entry_ok (rplm_l1 v) = true
  /\ ue_ok (luma_log2_weight_denom v) = true /\ ue_ok (chroma_log2_weight_denom v) = true
  /\ forallb pwt_entry_ok (pwt_l0 v) = true /\ forallb pwt_entry_ok (pwt_l1 v) = true
  /\ forallb mmco_ok (mmco v) = true.
Proof. intros Hv. unfold slice_valid in Hv. split_all. repeat split; assumption. Qed.

(* the reference counts in force are at most 31, and the weight tables have one entry per reference *)
Lemma slice_pwt_counts c sp pp v : pps_valid c pp = true -> slice_valid sp pp v = true ->
  let n0 := if sl_has_ref_idx v then eff_l0 pp v else 0 in
  let n1 := if sl_has_ref_idx v then eff_l1 pp v else 0 in
  n0 <= 31 /\ n1 <= 31
  /\ (sl_has_pwt pp v = true -> lenN (pwt_l0 v) = n0 + 1 /\ (is_B v = true -> lenN (pwt_l1 v) = n1 + 1)).
Proof.
  intros Hpv Hv.
  destruct (pps_valid_bounds c pp Hpv) as (_ & _ & _ & _ & Hd0 & Hd1 & _).
  destruct (slice_valid_bounds sp pp v Hv) as (_ & _ & _ & _ & _ & _ & _ & _ & _ & Hl0 & Hl1 & _).
  assert (He : eff_l0 pp v <= 31 /\ eff_l1 pp v <= 31)
    by (unfold eff_l0, eff_l1; destruct (sl_override v), (is_B v); lia).
  cbv zeta. split; [destruct (sl_has_ref_idx v); lia|]. split; [destruct (sl_has_ref_idx v); lia|].
  intros Hp. assert (Hh : sl_has_ref_idx v = true) by exact (has_pwt_has_ref _ _ _ _ _ Hp). rewrite Hh.
  unfold slice_valid in Hv. split_all.
  match goal with H : (if sl_has_pwt pp v then _ else true) = true |- _ =>
    rewrite Hp in H; apply andb_prop in H; destruct H as [Hw0 Hw1] end.
  split; [lia|]. intros HB. rewrite HB in Hw1. lia.
Qed.

(* ------------------------------------------------------------------ the header fits in 2^32 bytes *)
Lemma escape_from_len : forall l z, lenN (escape_from z l) <= 2 * lenN l.
Proof.
  induction l as [|b t IH]; intros z; cbn [escape_from].
  - rewrite lenN_nil. lia.
  - destruct ((z =? 2) && (b <=? 3)); rewrite !lenN_cons;
      match goal with |- context [escape_from ?z' t] => specialize (IH z') end; lia.
Qed.

Lemma nbytes_at_le raw bits : nbytes_at raw bits <= 2 * ((bits + 7) / 8).
Proof.
  unfold nbytes_at, escape.
  eapply N.le_trans; [apply escape_from_len|].
  unfold lenN. rewrite firstn_length. lia.
Qed.

Lemma len_ue_le v : v < 4294967295 -> lenN (ue_bits v) <= 63.
Proof.
  intros H. rewrite lenN_ue_bits.
  assert (N.log2 (v + 1) < 32); [|lia].
  apply N.log2_lt_pow2; [lia|]. change (2 ^ 32) with 4294967296. lia.
Qed.

Lemma len_se_le k : se_ok k = true -> lenN (se_bits k) <= 63.
Proof.
  unfold se_ok, int32_ok, se_bits. intros H. apply len_ue_le.
  destruct k as [|q|q]; cbn [se_code]; lia.
Qed.

Lemma len_opt_le (c : bool) (e : list bool) b : (c = true -> lenN e <= b) -> lenN (opt_bits c e) <= b.
Proof. destruct c; cbn [opt_bits]; intros H; [apply H; reflexivity | rewrite lenN_nil; lia]. Qed.

Lemma len_app_le {A} (a b : list A) x y : lenN a <= x -> lenN b <= y -> lenN (a ++ b) <= x + y.
Proof. intros. rewrite lenN_app. lia. Qed.

Lemma len_flat_map_le {X} (f : X -> list bool) c : forall l,
  (forall x, In x l -> lenN (f x) <= c) -> lenN (flat_map f l) <= c * lenN l.
Proof.
  induction l as [|x t IH]; intros H; cbn [flat_map].
  - rewrite lenN_nil. lia.
  - rewrite lenN_app, lenN_cons.
    assert (lenN (f x) <= c) by (apply H; left; reflexivity).
    assert (lenN (flat_map f t) <= c * lenN t) by (apply IH; intros; apply H; right; assumption).
    lia.
Qed.

Lemma len_rplm_le flag l :
  forallb rplm_entry_ok l = true -> lenN l <= 1000 -> lenN (ser_rplm flag l) <= 200000.
Proof.
  intros Hok Hl. unfold ser_rplm.
  assert (H1 : lenN (flat_map ser_rplm_entry l) <= 126 * lenN l).
  { apply len_flat_map_le. intros [i x] Hin. rewrite forallb_forall in Hok. specialize (Hok _ Hin).
    unfold rplm_entry_ok in Hok. cbn [fst snd] in Hok. apply andb_prop in Hok. destruct Hok as [Hi Hx].
    unfold ue_ok in Hx. unfold ser_rplm_entry. cbn [fst snd]. rewrite lenN_app.
    pose proof (len_ue_le i). pose proof (len_ue_le x). lia. }
  rewrite lenN_app, lenN_fl.
  assert (lenN (opt_bits flag (flat_map ser_rplm_entry l ++ ue_bits 3)) <= 126 * lenN l + 63).
  { apply len_opt_le. intros _. rewrite lenN_app. pose proof (len_ue_le 3). lia. }
  lia.
Qed.

Lemma len_mmco_le l :
  forallb mmco_ok l = true -> lenN l <= 1000 -> lenN (flat_map ser_mmco l ++ ue_bits 0) <= 400000.
Proof.
  intros Hok Hl.
  assert (H1 : lenN (flat_map ser_mmco l) <= 378 * lenN l).
  { apply len_flat_map_le. intros [[op a] b] Hin. rewrite forallb_forall in Hok. specialize (Hok _ Hin).
    unfold mmco_ok in Hok. apply andb_prop in Hok. destruct Hok as [Hok Hb].
    apply andb_prop in Hok. destruct Hok as [Hok Ha]. apply andb_prop in Hok. destruct Hok as [H1 H6].
    unfold ue_ok in *. unfold ser_mmco. rewrite !lenN_app.
    pose proof (len_ue_le op). pose proof (len_ue_le a). pose proof (len_ue_le b).
    assert (Hopt : forall c e, lenN e <= 63 -> lenN (opt_bits c e) <= 63) by (intros; apply len_opt_le; auto).
    pose proof (Hopt ((op =? 1) || (op =? 3)) (ue_bits a)). pose proof (Hopt (op =? 2) (ue_bits a)).
    pose proof (Hopt (op =? 3) (ue_bits b)). pose proof (Hopt (op =? 6) (ue_bits a)).
    pose proof (Hopt (op =? 4) (ue_bits a)). lia. }
  rewrite lenN_app. pose proof (len_ue_le 0). lia.
Qed.

Lemma len_pwt_entry_le sp e : pwt_entry_ok e = true -> lenN (ser_pwt_entry sp e) <= 400.
Proof.
  intros Hok. unfold pwt_entry_ok in Hok. apply andb_prop in Hok. destruct Hok as [Hl Hc].
  unfold ser_pwt_entry. rewrite lenN_app.
  assert (H1 : lenN (match pwt_luma e with
                     | None => fl false
                     | Some (w, o) => fl true ++ se_bits w ++ se_bits o end) <= 127).
  { destruct (pwt_luma e) as [[w o]|]; [|rewrite lenN_fl; lia].
    apply andb_prop in Hl. destruct Hl as [Hw Ho].
    rewrite !lenN_app, lenN_fl. pose proof (len_se_le _ Hw). pose proof (len_se_le _ Ho). lia. }
  assert (H2 : lenN (opt_bits (sl_cat_nonzero sp)
                       (match pwt_chroma e with
                        | None => fl false
                        | Some (w0, o0, w1, o1) =>
                            fl true ++ se_bits w0 ++ se_bits o0 ++ se_bits w1 ++ se_bits o1 end)) <= 253).
  { apply len_opt_le. intros _.
    destruct (pwt_chroma e) as [[[[a b] c] d]|]; [|rewrite lenN_fl; lia].
    apply andb_prop in Hc. destruct Hc as [Hc Hd]. apply andb_prop in Hc. destruct Hc as [Hc Hc'].
    apply andb_prop in Hc. destruct Hc as [Ha Hb].
    rewrite !lenN_app, lenN_fl.
    pose proof (len_se_le _ Ha). pose proof (len_se_le _ Hb). pose proof (len_se_le _ Hc').
    pose proof (len_se_le _ Hd). lia. }
  lia.
Qed.

Lemma len_pwt_list_le sp l n :
  forallb pwt_entry_ok l = true -> lenN l = n + 1 -> n <= 31 ->
  lenN (flat_map (ser_pwt_entry sp) l) <= 12800.
Proof.
  intros Hok Hl Hn.
  assert (lenN (flat_map (ser_pwt_entry sp) l) <= 400 * lenN l); [|lia].
  apply len_flat_map_le. intros x Hin. apply len_pwt_entry_le.
  rewrite forallb_forall in Hok. apply Hok. exact Hin.
Qed.

Lemma len_u_le n x b : n <= b -> lenN (u n x) <= b.
Proof. rewrite lenN_u. exact (fun H => H). Qed.

Lemma len_if_le {A} (c : bool) (a b : list A) x y : lenN a <= x -> lenN b <= y -> lenN (if c then a else b) <= x + y.
Proof. destruct c; lia. Qed.

