(* C15AvcDimsProofs.v — Width / Height returned by ParseSPSNALUnit (model) are the values of the
   cropping formula of ISO/IEC 14496-10 7.4.2.1.1 on the derived quantities of C15Spec. *)
From V.lib Require Import Base.
From V.c13 Require Import C13Spec C13Model.
From V.c15 Require Import C15Model C15Spec C15BitProofs C15AvcSpsProofs C15AvcVuiProofs.

(* stated with + so that no truncated subtraction is involved *)
Lemma avc_dims v beyond s :
  sps_valid v = true -> parse_sps_br beyond (nalu_sps v) = Ok s ->
  sps_width s + crop_w v = pic_width_in_samples v
  /\ sps_height s + crop_h v = frame_height_in_samples v
  /\ 0 < sps_width s /\ 0 < sps_height s.
Proof.
  intros Hv Hs. rewrite (avc_sps_go v beyond Hv) in Hs. injection Hs as <-.
  exact (display_plus_crop v Hv).
Qed.

(* the crop amounts with the four offsets inferred 0 when frame_cropping_flag is unset *)
Lemma crop_w_offsets v :
  crop_w v = crop_unit_x v * ((if frame_cropping_flag v then frame_crop_left_offset v else 0)
                              + (if frame_cropping_flag v then frame_crop_right_offset v else 0)).
Proof. unfold crop_w. destruct (frame_cropping_flag v); [reflexivity | now rewrite N.mul_0_r]. Qed.

Lemma crop_h_offsets v :
  crop_h v = crop_unit_y v * ((if frame_cropping_flag v then frame_crop_top_offset v else 0)
                              + (if frame_cropping_flag v then frame_crop_bottom_offset v else 0)).
Proof. unfold crop_h. destruct (frame_cropping_flag v); [reflexivity | now rewrite N.mul_0_r]. Qed.

(* separate_colour_plane_flag counts only for 4:4:4, which the inferred chroma_format_idc 1 is not *)
Lemma eff_separate_by_eff_chroma v :
  eff_separate_colour_plane v
  = has_chroma_block (profile_idc v) && (eff_chroma_format_idc v =? 3) && separate_colour_plane_flag v.
Proof.
  unfold eff_separate_colour_plane, eff_chroma_format_idc. destruct (has_chroma_block (profile_idc v)); reflexivity.
Qed.
