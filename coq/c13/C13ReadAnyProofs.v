(* C13ReadAnyProofs.v — what EBSPReader.Read(n) returns for EVERY n <= 64.  The refill loop shifts whole bytes
   through the 64-bit accumulator; when pending + refilled bits exceed 64 the topmost bits fall out.  With a ghost
   unbounded accumulator X (rv = X mod 2^64): Read(n) returns the true n-bit value modulo 2^(64 - k), k = the number of
   bits left pending afterwards, and the stream position is always right.  Exact iff n + k <= 64.
   The EBSP instances of C13ReaderProofs.fill_stream / read_gen_stream. *)
From V.lib Require Import Base.
From V.c13 Require Import C13Spec C13Model C13Bits C13EscProofs C13ReaderProofs.

Definition GInv (s : rstate) (X : N) : Prop :=
  rerr s = false /\ X < 2 ^ rn s /\ rv s = X mod 2 ^ 64 /\ Forall lt256 (rdata s).

Definition gbits (s : rstate) (X : N) : list bool :=
  bits_of (N.to_nat (rn s)) X ++ bytes_to_bits (rrest s).

Lemma fill_any fuel : forall s X n,
  GInv s X -> rn s < n + 8 ->
  n <= N.of_nat (length (gbits s X)) -> n <= rn s + 8 * N.of_nat fuel ->
  let s1 := fill true fuel s n in
  exists X1, GInv s1 X1 /\ n <= rn s1 /\ rn s1 < n + 8 /\ gbits s1 X1 = gbits s X /\ rdata s1 = rdata s.
Proof. intros s X n HI H1 H2 H3. exact (fill_stream true fuel s X n H1 H2 H3 HI). Qed.

(* Read(n), any n <= 64 (in fact any n: nothing here depends on the bound except through 64 - k) *)
Lemma read_any s n :
  RInv s -> rn s < 8 -> n <= N.of_nat (length (rbits s)) ->
  let '(v, s') := read s n in
  v = val_of (firstn (N.to_nat n) (rbits s)) mod 2 ^ (64 - rn s') /\
  rbits s' = skipn (N.to_nat n) (rbits s) /\
  RInv s' /\ rn s' < 8 /\ rdata s' = rdata s.
Proof. exact (read_gen_stream true s n). Qed.

(* exact whenever the n bits and the k bits left pending fit the accumulator together *)
Lemma read_exact_fit s n :
  RInv s -> rn s < 8 -> n <= N.of_nat (length (rbits s)) ->
  n + rn (snd (read s n)) <= 64 ->
  fst (read s n) = val_of (firstn (N.to_nat n) (rbits s)).
Proof.
  intros HI Hrn Hlen Hfit. pose proof (read_gen_fit true s n HI Hrn Hlen Hfit) as H.
  fold (read s n) in H. destruct (read s n) as [v s']. apply H.
Qed.
