(* C13Bits.v — bit lists (most significant bit first) and their relation to N:
   the vocabulary in which the bit-level theorems of C13 are stated. *)
From V.lib Require Import Base.

(* the w low bits of v, most significant first *)
Fixpoint bits_of (w : nat) (v : N) : list bool :=
  match w with
  | O => []
  | S w' => N.testbit v (N.of_nat w') :: bits_of w' v
  end.

(* value of a bit list, most significant first *)
Fixpoint val_of (l : list bool) : N :=
  match l with
  | [] => 0
  | b :: t => N.b2n b * 2 ^ N.of_nat (length t) + val_of t
  end.

Definition bytes_to_bits (l : list N) : list bool := flat_map (bits_of 8) l.

(* ------------------------------------------------------------------ basics *)
Lemma firstn_app_len {A} (l1 l2 : list A) n : length l1 = n -> firstn n (l1 ++ l2) = l1.
Proof. intros <-. rewrite firstn_app, Nat.sub_diag, firstn_O, app_nil_r. apply firstn_all. Qed.

Lemma skipn_app_len {A} (l1 l2 : list A) n : length l1 = n -> skipn n (l1 ++ l2) = l2.
Proof. intros <-. rewrite skipn_app, Nat.sub_diag, skipn_all. reflexivity. Qed.

Lemma bits_of_length w v : length (bits_of w v) = w.
Proof. induction w as [|w IH]; cbn [bits_of length]; [reflexivity|now rewrite IH]. Qed.

Lemma bits_of_ext w a b :
  (forall i, i < N.of_nat w -> N.testbit a i = N.testbit b i) -> bits_of w a = bits_of w b.
Proof.
  induction w as [|w IH]; intros H; cbn [bits_of]; [reflexivity|].
  f_equal; [apply H; lia|apply IH; intros i Hi; apply H; lia].
Qed.

(* splitting: the high a bits come from X, the low b bits from Y *)
Lemma bits_of_app_ext a b V X Y :
  (forall i, i < N.of_nat b -> N.testbit V i = N.testbit Y i) ->
  (forall i, i < N.of_nat a -> N.testbit V (N.of_nat b + i) = N.testbit X i) ->
  bits_of (a + b) V = bits_of a X ++ bits_of b Y.
Proof.
  intros HY HX. induction a as [|a IH].
  - cbn [Nat.add bits_of app]. apply bits_of_ext. exact HY.
  - cbn [Nat.add bits_of app]. f_equal.
    + replace (N.of_nat (a + b)) with (N.of_nat b + N.of_nat a) by lia. apply HX. lia.
    + apply IH. intros i Hi. apply HX. lia.
Qed.

Lemma bits_of_app a b V :
  bits_of (a + b) V = bits_of a (N.shiftr V (N.of_nat b)) ++ bits_of b V.
Proof.
  apply bits_of_app_ext; [reflexivity|].
  intros i _. rewrite N.shiftr_spec by lia. f_equal. lia.
Qed.

Lemma bits_of_0 k : bits_of k 0 = repeat false k.
Proof. induction k as [|k IH]; [reflexivity|]. cbn [bits_of repeat]. rewrite N.bits_0, IH. reflexivity. Qed.

Lemma bits_of_mod_le w v k : N.of_nat w <= k -> bits_of w (v mod 2 ^ k) = bits_of w v.
Proof. intros H. apply bits_of_ext. intros i Hi. apply N.mod_pow2_bits_low. lia. Qed.

Lemma bits_of_mod w v : bits_of w (v mod 2 ^ N.of_nat w) = bits_of w v.
Proof. apply bits_of_mod_le. lia. Qed.

(* the converse of val_of_app below: m more bits under X *)
Lemma bits_of_mul_add k m X b :
  b < 2 ^ N.of_nat m -> bits_of (k + m) (X * 2 ^ N.of_nat m + b) = bits_of k X ++ bits_of m b.
Proof.
  intros Hb. assert (Hp : 2 ^ N.of_nat m <> 0) by (apply N.pow_nonzero; lia).
  rewrite bits_of_app, shiftr_div, N.div_add_l, (N.div_small b), N.add_0_r by assumption.
  f_equal. rewrite <- (bits_of_mod m (_ + b)), N.add_comm, N.mod_add, N.mod_small by assumption.
  reflexivity.
Qed.

(* a number with q + 1 significant bits: the leading 1 and the q bits below it *)
Lemma bits_of_top q x :
  2 ^ N.of_nat q <= x < 2 ^ (N.of_nat q + 1) -> bits_of (S q) x = true :: bits_of q (x - 2 ^ N.of_nat q).
Proof.
  intros [Hlo Hhi]. rewrite N.pow_add_r in Hhi.
  replace x with (1 * 2 ^ N.of_nat q + (x - 2 ^ N.of_nat q)) at 1 by lia.
  apply (bits_of_mul_add 1). lia.
Qed.

Lemma val_of_lt l : val_of l < 2 ^ N.of_nat (length l).
Proof.
  induction l as [|b t IH]; cbn [val_of length]; [cbn; lia|].
  replace (N.of_nat (S (length t))) with (N.succ (N.of_nat (length t))) by lia.
  rewrite N.pow_succ_r by lia. destruct b; cbn [N.b2n]; lia.
Qed.

Lemma val_of_app l1 l2 :
  val_of (l1 ++ l2) = val_of l1 * 2 ^ N.of_nat (length l2) + val_of l2.
Proof.
  induction l1 as [|b t IH]; cbn [app val_of]; [lia|].
  rewrite IH, app_length.
  replace (N.of_nat (length t + length l2)) with (N.of_nat (length t) + N.of_nat (length l2)) by lia.
  rewrite N.pow_add_r. lia.
Qed.

Lemma val_of_bits_of w v : val_of (bits_of w v) = v mod 2 ^ N.of_nat w.
Proof.
  induction w as [|w IH]; cbn [bits_of val_of].
  - cbn. rewrite N.mod_1_r. reflexivity.
  - rewrite bits_of_length, IH, N.testbit_spec'.
    replace (N.of_nat (S w)) with (N.succ (N.of_nat w)) by lia.
    rewrite N.pow_succ_r by lia.
    rewrite (N.mul_comm 2), N.mod_mul_r; [lia| |lia].
    apply N.pow_nonzero. lia.
Qed.

Lemma val_of_bits_of_small w v : v < 2 ^ N.of_nat w -> val_of (bits_of w v) = v.
Proof. intros H. rewrite val_of_bits_of. apply N.mod_small, H. Qed.

Lemma testbit_above v k i : v < 2 ^ k -> k <= i -> N.testbit v i = false.
Proof.
  intros Hv Hi. destruct (N.eq_dec v 0) as [->|Hv0]; [apply N.bits_0|].
  apply N.bits_above_log2. apply N.log2_lt_pow2 in Hv; lia.
Qed.

Lemma testbit_val_of_high l i : N.of_nat (length l) <= i -> N.testbit (val_of l) i = false.
Proof. apply testbit_above, val_of_lt. Qed.

Lemma val_of_firstn_lt l n : (N.to_nat n <= length l)%nat -> val_of (firstn (N.to_nat n) l) < 2 ^ n.
Proof.
  intros H. pose proof (val_of_lt (firstn (N.to_nat n) l)) as Hl.
  rewrite firstn_length_le, N2Nat.id in Hl by exact H. exact Hl.
Qed.

Lemma bits_of_val_of l : bits_of (length l) (val_of l) = l.
Proof.
  induction l as [|b t IH]; [reflexivity|]. cbn [length val_of].
  rewrite (bits_of_mul_add 1 (length t)), IH by apply val_of_lt. destruct b; reflexivity.
Qed.

Lemma bits_of_inj w a b : a < 2 ^ N.of_nat w -> b < 2 ^ N.of_nat w -> bits_of w a = bits_of w b -> a = b.
Proof.
  intros Ha Hb E. apply (f_equal val_of) in E. rewrite !val_of_bits_of_small in E by assumption. exact E.
Qed.

Lemma firstn_bits_of a b V : firstn a (bits_of (a + b) V) = bits_of a (N.shiftr V (N.of_nat b)).
Proof. rewrite bits_of_app. apply firstn_app_len, bits_of_length. Qed.

Lemma skipn_bits_of a b V : skipn a (bits_of (a + b) V) = bits_of b V.
Proof. rewrite bits_of_app. apply skipn_app_len, bits_of_length. Qed.

Lemma bytes_to_bits_app l1 l2 : bytes_to_bits (l1 ++ l2) = bytes_to_bits l1 ++ bytes_to_bits l2.
Proof. unfold bytes_to_bits. apply flat_map_app. Qed.

Lemma bytes_to_bits_length l : length (bytes_to_bits l) = (8 * length l)%nat.
Proof.
  induction l as [|b t IH]; [reflexivity|].
  unfold bytes_to_bits in *. cbn [flat_map]. rewrite app_length, bits_of_length, IH. cbn [length]. lia.
Qed.
