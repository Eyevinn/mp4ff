(* C13MarkProofs.v — facts about WHERE the escape bytes are: every 00 00 03 in the escaped
   stream ends at an inserted byte, and every inserted byte is required. *)
From V.lib Require Import Base.
From V.c13 Require Import C13Spec C13EscProofs.

Lemma escape_marked_fst z l : map fst (escape_marked_from z l) = escape_from z l.
Proof.
  revert z. induction l as [|b t IH]; intros z; [reflexivity|].
  cbn [escape_marked_from escape_from]. destruct ((z =? 2) && (b <=? 3)); cbn [map fst]; rewrite IH; reflexivity.
Qed.

(* ---------- every inserted byte is needed ---------- *)
Lemma inserted_needed_from z l z1 z0 :
  z <= 2 -> (1 <= z -> z0 = true) -> (2 <= z -> z1 = true) ->
  inserted_needed z1 z0 (escape_marked_from z l) = true.
Proof.
  revert z z1 z0. induction l as [|b t IH]; intros z z1 z0 Hz H0 H1; [reflexivity|].
  cbn [escape_marked_from].
  destruct ((z =? 2) && (b <=? 3)) eqn:E.
  - apply andb_true_iff in E. destruct E as [E1 E2]. apply N.eqb_eq in E1. subst z.
    rewrite (H0 ltac:(lia)), (H1 ltac:(lia)).
    cbn [inserted_needed andb]. rewrite E2. cbn [andb].
    change (3 =? 0) with false.
    apply IH.
    + destruct (b =? 0); lia.
    + destruct (N.eqb_spec b 0); intros; [reflexivity|lia].
    + destruct (N.eqb_spec b 0); intros; lia.
  - cbn [inserted_needed andb].
    apply IH.
    + apply andb_false_iff in E. destruct (N.eqb_spec b 0) as [->|]; [|lia].
      destruct E as [E|E]; [apply N.eqb_neq in E; lia|cbn in E; discriminate].
    + destruct (N.eqb_spec b 0); intros; [reflexivity|lia].
    + destruct (N.eqb_spec b 0) as [->|]; intros; [|lia]. apply H0. lia.
Qed.

Lemma inserted_needed_escape l : inserted_needed false false (escape_marked l) = true.
Proof. apply inserted_needed_from; intros; lia. Qed.

(* ---------- every 00 00 03 ends at an inserted byte ---------- *)
Definition mzeros (z : N) : list (N * bool) := repeat (0, false) (N.to_nat z).

Lemma all003_cons3 a b c t :
  all_003_inserted (a :: b :: c :: t) =
  (if (fst a =? 0) && (fst b =? 0) && (fst c =? 3) then snd c else true) && all_003_inserted (b :: c :: t).
Proof. reflexivity. Qed.

(* as for forbidden triples: a 00 00 03 has no non-zero byte in its first two places *)
Lemma all003_cut p e t :
  fst e <> 0 -> all_003_inserted (p ++ e :: t) = all_003_inserted (p ++ [e]) && all_003_inserted t.
Proof.
  intros Ha. apply N.eqb_neq in Ha.
  assert (H0 : forall u, all_003_inserted (e :: u) = all_003_inserted u).
  { intros [|b [|c u]]; try reflexivity. rewrite all003_cons3, Ha. reflexivity. }
  induction p as [|x p IH]; [exact (H0 t)|].
  destruct p as [|y [|w p]]; cbn [app] in *.
  - destruct t as [|c t]; [reflexivity|]. rewrite all003_cons3, Ha, andb_false_r, H0. reflexivity.
  - rewrite !all003_cons3, IH. apply andb_assoc.
  - rewrite !all003_cons3, IH. apply andb_assoc.
Qed.

Lemma all_003_from z l : z <= 2 -> all_003_inserted (mzeros z ++ escape_marked_from z l) = true.
Proof.
  revert z. induction l as [|b t IH]; intros z Hz;
    (assert (z = 0 \/ z = 1 \/ z = 2) as [-> | [-> | ->]] by lia); try reflexivity;
    cbn [escape_marked_from N.eqb Pos.eqb andb]; destruct (N.eqb_spec b 0) as [->|Hb].
  - exact (IH 1 ltac:(lia)).
  - rewrite all003_cut by exact Hb. exact (IH 0 ltac:(lia)).
  - exact (IH 2 ltac:(lia)).
  - rewrite all003_cut by exact Hb. exact (IH 0 ltac:(lia)).
  - (* 0 0 | 3* 0 ... *)
    change (all_003_inserted ([(0, false); (0, false)] ++ (3, true) :: mzeros 1 ++ escape_marked_from 1 t) = true).
    rewrite all003_cut by discriminate. exact (IH 1 ltac:(lia)).
  - destruct (N.leb_spec b 3) as [H3|H3].
    + (* 0 0 | 3* b ... *)
      change (all_003_inserted ([(0, false); (0, false)] ++ (3, true) :: [] ++ (b, false) :: escape_marked_from 0 t) = true).
      rewrite all003_cut by discriminate. rewrite (all003_cut []) by exact Hb. exact (IH 0 ltac:(lia)).
    + rewrite all003_cut by exact Hb. change (mzeros 2) with [(0, false); (0, false)]. cbn [app all_003_inserted fst snd].
      destruct (N.eqb_spec b 3); [lia|]. exact (IH 0 ltac:(lia)).
Qed.

Lemma all_003_escape l : all_003_inserted (escape_marked l) = true.
Proof. exact (all_003_from 0 l ltac:(lia)). Qed.

Lemma escape_lt256 z l : Forall (fun b => b < 256) l -> Forall (fun b => b < 256) (escape_from z l).
Proof.
  revert z. induction l as [|b t IH]; intros z H; [constructor|].
  inversion H; subst. cbn [escape_from].
  destruct ((z =? 2) && (b <=? 3)); repeat constructor; try assumption; try lia; apply IH; assumption.
Qed.
