(* C13ReaderProofs.v — the word-level readers of C13Model refine the bit-stream view: the bits still
   to be delivered are the pending accumulator bits followed by the bits of the rest of the input
   (UNESCAPED, for the EBSP reader); Read n returns the next n of them and advances.
   The refill loop and Read are treated once for both readers (esc) and for every width; the
   statements about the EBSP reader within the accumulator's exact range follow by instantiation. *)
From V.lib Require Import Base.
From V.c13 Require Import C13Spec C13Model C13Bits C13EscProofs.

Definition lt256 (b : N) : Prop := b < 256.

(* remaining logical bits of an emulation-removing reader *)
Definition rrest (s : rstate) : list N := unescape_from (rzc s) (skipn (N.to_nat (rpos s)) (rdata s)).
Definition rbits (s : rstate) : list bool :=
  bits_of (N.to_nat (rn s)) (rv s) ++ bytes_to_bits (rrest s).

Definition RInv (s : rstate) : Prop :=
  rerr s = false /\ rv s < 2 ^ rn s /\ Forall lt256 (rdata s).

Definition RGood (s : rstate) : Prop := RInv s /\ rn s < 8.

(* the bytes still to be delivered by either reader *)
Definition unread (esc : bool) (s : rstate) : list N :=
  if esc then rrest s else skipn (N.to_nat (rpos s)) (rdata s).

(* the bits still to be delivered if the accumulator held X; rbits s = rstream true s (rv s).
   X is the accumulator the loop would build without the 64-bit wrap (rv s = X mod 2^64): the
   position in the stream does not depend on what the wrap loses. *)
Definition rstream (esc : bool) (s : rstate) (X : N) : list bool :=
  bits_of (N.to_nat (rn s)) X ++ bytes_to_bits (unread esc s).

Lemma rstream_length esc s X :
  length (rstream esc s X) = (N.to_nat (rn s) + 8 * length (unread esc s))%nat.
Proof. unfold rstream. rewrite app_length, bits_of_length, bytes_to_bits_length. reflexivity. Qed.

Lemma RGood_err s : RGood s -> rerr s = false.
Proof. intros [[H _] _]. exact H. Qed.

Lemma nth_error_skipn {A} (l : list A) i x :
  nth_error l i = Some x -> skipn i l = x :: skipn (S i) l.
Proof.
  revert l. induction i as [|i IH]; intros [|a l] H; cbn in *; try discriminate.
  - inversion H; reflexivity.
  - apply IH. exact H.
Qed.

Lemma nth_error_none_skipn {A} (l : list A) i : nth_error l i = None -> skipn i l = [].
Proof. intros H. apply skipn_all2. apply nth_error_None. exact H. Qed.

Lemma nth_error_Forall {A} (P : A -> Prop) l i x : Forall P l -> nth_error l i = Some x -> P x.
Proof. intros HF H. rewrite Forall_forall in HF. apply HF. eapply nth_error_In; eassumption. Qed.

(* ------------------------------------------------------------------ shifting a byte in *)
Lemma ghost_shift_bits k X b :
  b < 256 -> bits_of (k + 8) (X * 256 + b) = bits_of k X ++ bits_of 8 b.
Proof. exact (bits_of_mul_add k 8 X b). Qed.

Lemma ghost_shift_acc X b :
  b < 256 -> N.lor (u64 (N.shiftl (X mod 2 ^ 64) 8)) b = (X * 256 + b) mod 2 ^ 64.
Proof.
  intros Hb. change 256 with (2 ^ 8). rewrite <- lor_shifted_add by exact Hb.
  rewrite <- N.shiftl_mul_pow2. unfold u64. change 18446744073709551616 with (2 ^ 64).
  apply N.bits_inj. intros i. rewrite N.lor_spec.
  destruct (N.lt_ge_cases i 64) as [Hlt|Hge].
  - rewrite !N.mod_pow2_bits_low by exact Hlt. rewrite N.lor_spec. f_equal.
    destruct (N.lt_ge_cases i 8) as [H8|H8].
    + rewrite !N.shiftl_spec_low by exact H8. reflexivity.
    + rewrite !N.shiftl_spec_high' by exact H8. apply N.mod_pow2_bits_low. lia.
  - rewrite !N.mod_pow2_bits_high by exact Hge. rewrite (testbit_above b 8 i) by (exact Hb || lia). reflexivity.
Qed.

Lemma ghost_shift_lt k X b : X < 2 ^ k -> b < 256 -> X * 256 + b < 2 ^ (k + 8).
Proof. intros HX Hb. rewrite N.pow_add_r. change (2 ^ 8) with 256. nia. Qed.

(* the same for an accumulator that does not wrap *)
Lemma acc_shift_bits k v b :
  (k + 8 <= 64)%nat -> b < 256 ->
  bits_of (k + 8) (N.lor (u64 (N.shiftl v 8)) b) = bits_of k v ++ bits_of 8 b.
Proof.
  intros Hk Hb. apply bits_of_app_ext.
  - intros i Hi. rewrite N.lor_spec. unfold u64. change 18446744073709551616 with (2 ^ 64).
    rewrite N.mod_pow2_bits_low by lia. rewrite N.shiftl_spec_low by lia. reflexivity.
  - intros i Hi. rewrite N.lor_spec. unfold u64. change 18446744073709551616 with (2 ^ 64).
    rewrite N.mod_pow2_bits_low by lia. rewrite N.shiftl_spec_high' by lia.
    replace (N.of_nat 8 + i - 8) with i by lia.
    rewrite (testbit_above b 8) by (exact Hb || lia). apply orb_false_r.
Qed.

Lemma acc_shift_lt k v b :
  k + 8 <= 64 -> v < 2 ^ k -> b < 256 -> N.lor (u64 (N.shiftl v 8)) b < 2 ^ (k + 8).
Proof.
  intros Hk Hv Hb. rewrite <- (N.mod_small v (2 ^ 64)).
  - rewrite ghost_shift_acc by exact Hb. eapply N.le_lt_trans; [apply N.mod_le; lia|].
    apply ghost_shift_lt; assumption.
  - eapply N.lt_le_trans; [exact Hv|]. apply N.pow_le_mono_r; lia.
Qed.

Lemma shiftr_mod_pow2 X k : k <= 64 ->
  N.shiftr (X mod 2 ^ 64) k = (N.shiftr X k) mod 2 ^ (64 - k).
Proof.
  intros Hk. apply N.bits_inj. intros i. rewrite N.shiftr_spec by lia.
  destruct (N.lt_ge_cases i (64 - k)) as [Hlt|Hge].
  - rewrite !N.mod_pow2_bits_low by lia. rewrite N.shiftr_spec by lia. reflexivity.
  - rewrite !N.mod_pow2_bits_high by lia. reflexivity.
Qed.

(* ------------------------------------------------------------------ the refill loop *)
Definition shift_in (s : rstate) (c p z : N) : rstate :=
  mkR (rn s + 8) (N.lor (u64 (N.shiftl (rv s) 8)) c) p z false (rdata s).

(* one round: it fails when nothing is left to deliver, and otherwise shifts in the next byte to be
   delivered (the one behind the escape byte, if there is one) and goes on behind it *)
Lemma fill_step esc f s n :
  rn s < n ->
  match unread esc s with
  | [] => rerr (fill esc (S f) s n) = true
  | c :: t => In c (rdata s) /\
      exists p z, fill esc (S f) s n = fill esc f (shift_in s c p z) n /\ unread esc (shift_in s c p z) = t
  end.
Proof.
  intros Hlt. cbn [fill]. rewrite (proj2 (N.ltb_lt _ _) Hlt).
  unfold unread, rrest, byte_at, shift_in. cbn [rpos rzc rdata].
  destruct (nth_error (rdata s) (N.to_nat (rpos s))) as [b|] eqn:Eb.
  2:{ rewrite (nth_error_none_skipn _ _ Eb). destruct esc; reflexivity. }
  rewrite (nth_error_skipn _ _ _ Eb).
  assert (Hp : forall q, N.to_nat (q + 1) = S (N.to_nat q)) by (intros; lia).
  destruct esc; cbn [andb unescape_from].
  - destruct ((rzc s =? 2) && (b =? 3)).
    + rewrite Hp. destruct (nth_error (rdata s) (S (N.to_nat (rpos s)))) as [b'|] eqn:Eb'.
      * rewrite (nth_error_skipn _ _ _ Eb'). split; [eapply nth_error_In; exact Eb'|].
        eexists _, _. split; [reflexivity|]. rewrite !Hp. reflexivity.
      * rewrite (nth_error_none_skipn _ _ Eb'). reflexivity.
    + split; [eapply nth_error_In; exact Eb|]. eexists _, _. split; [reflexivity|]. rewrite Hp. reflexivity.
  - split; [eapply nth_error_In; exact Eb|]. eexists _, _. split; [reflexivity|]. rewrite Hp. reflexivity.
Qed.

Lemma fill_noop esc fuel s n : n <= rn s -> fill esc fuel s n = s.
Proof. intros H. destruct fuel; cbn [fill]; [|rewrite (proj2 (N.ltb_ge _ _) H)]; reflexivity. Qed.

(* as long as n bits are left the loop stops with at least n of them in the (unbounded) accumulator,
   the stream unchanged *)
Lemma fill_stream esc fuel : forall s X n,
  rn s < n + 8 ->
  n <= N.of_nat (length (rstream esc s X)) -> n <= rn s + 8 * N.of_nat fuel ->
  rerr s = false /\ X < 2 ^ rn s /\ rv s = X mod 2 ^ 64 /\ Forall lt256 (rdata s) ->
  let s1 := fill esc fuel s n in
  exists X1,
    (rerr s1 = false /\ X1 < 2 ^ rn s1 /\ rv s1 = X1 mod 2 ^ 64 /\ Forall lt256 (rdata s1)) /\
    n <= rn s1 /\ rn s1 < n + 8 /\ rstream esc s1 X1 = rstream esc s X /\ rdata s1 = rdata s.
Proof.
  (* the invariant is introduced last: its `mod` is dear to every lia that sees it *)
  induction fuel as [|f IH]; intros s X n Hrn Hlen Hfuel; cbv zeta.
  - rewrite fill_noop by lia. intros HI. exists X. split; [exact HI|clear HI; repeat split; lia].
  - destruct (N.lt_ge_cases (rn s) n) as [Hlt|Hge].
    { rewrite rstream_length in Hlen.
      pose proof (fill_step esc f s n Hlt) as H.
      destruct (unread esc s) as [|c t] eqn:Eu; cbn [length] in Hlen; [lia|].
      destruct H as [Hin [p [z [-> Ht]]]].
      specialize (IH (shift_in s c p z) (X * 256 + c) n). cbv zeta in IH.
      rewrite rstream_length, Ht in IH. cbn [shift_in rn] in IH.
      specialize (IH ltac:(lia) ltac:(lia) ltac:(lia)).
      intros [He [HX [Hv Hd]]].
      assert (Hc : c < 256) by exact (proj1 (Forall_forall _ _) Hd c Hin).
      destruct IH as [X1 [HI1 [H1 [H2 [H3 H4]]]]].
      - cbn [shift_in rerr rn rv rdata]. split; [reflexivity|].
        split; [apply ghost_shift_lt; assumption|]. split; [|exact Hd].
        rewrite Hv. apply ghost_shift_acc. exact Hc.
      - exists X1. rewrite H3. split; [exact HI1|]. split; [exact H1|]. split; [exact H2|]. split; [|exact H4].
        unfold rstream. rewrite Ht, Eu. cbn [shift_in rn].
        replace (N.to_nat (rn s + 8)) with (N.to_nat (rn s) + 8)%nat by (clear; lia).
        rewrite ghost_shift_bits, <- app_assoc by exact Hc. reflexivity. }
    rewrite fill_noop by exact Hge. intros HI. exists X. split; [exact HI|clear HI; repeat split; lia].
Qed.

(* when fewer than n bits are left it runs into the end of the input *)
Lemma fill_short esc fuel : forall s n,
  N.of_nat (length (rstream esc s (rv s))) < n -> n <= rn s + 8 * N.of_nat fuel ->
  rerr (fill esc fuel s n) = true.
Proof.
  induction fuel as [|f IH]; intros s n Hlen Hfuel; rewrite rstream_length in Hlen; [lia|].
  pose proof (fill_step esc f s n ltac:(lia)) as H.
  destruct (unread esc s) as [|c t]; [exact H|].
  destruct H as [_ [p [z [-> Ht]]]]. cbn [length] in Hlen.
  apply IH; rewrite ?rstream_length, ?Ht; cbn [shift_in rn]; lia.
Qed.

(* within the accumulator (at most 57 bits wanted, so at most 64 held) nothing wraps *)
Lemma fill_exact esc fuel s n :
  RInv s -> n <= 57 -> rn s < n + 8 ->
  n <= N.of_nat (length (rstream esc s (rv s))) -> n <= rn s + 8 * N.of_nat fuel ->
  let s1 := fill esc fuel s n in
  RInv s1 /\ n <= rn s1 /\ rn s1 < n + 8 /\ rstream esc s1 (rv s1) = rstream esc s (rv s) /\ rdata s1 = rdata s
  /\ (n <= rn s -> s1 = s).
Proof.
  intros [He [Hv Hd]] Hn Hrn Hlen Hfuel.
  assert (Hsmall : forall k X, k <= 64 -> X < 2 ^ k -> X mod 2 ^ 64 = X).
  { intros k X Hk HX. apply N.mod_small. eapply N.lt_le_trans; [exact HX|]. apply N.pow_le_mono_r; lia. }
  destruct (fill_stream esc fuel s (rv s) n) as [X1 [[He1 [HX1 [Hv1 Hd1]]] [H1 [H2 [H3 H4]]]]];
    try assumption.
  { rewrite (Hsmall (rn s)) by (assumption || lia). repeat split; assumption. }
  cbv zeta. rewrite (Hsmall (rn (fill esc fuel s n))) in Hv1 by (assumption || lia). subst X1.
  repeat split; try assumption. apply fill_noop.
Qed.

(* ------------------------------------------------------------------ Read(n), either reader, any width *)
(* the value is the true n-bit value modulo 2^(64 - k), k = the number of bits left pending; the position
   in the stream is right in every case *)
Lemma read_gen_stream esc s n :
  RInv s -> rn s < 8 -> n <= N.of_nat (length (rstream esc s (rv s))) ->
  let '(v, s') := read_gen esc s n in
  v = val_of (firstn (N.to_nat n) (rstream esc s (rv s))) mod 2 ^ (64 - rn s') /\
  rstream esc s' (rv s') = skipn (N.to_nat n) (rstream esc s (rv s)) /\
  RInv s' /\ rn s' < 8 /\ rdata s' = rdata s.
Proof.
  intros [He [Hv Hd]] Hrn Hlen. unfold read_gen. rewrite He.
  set (fuel := S (N.to_nat (n / 8) + 1)).
  destruct (fill_stream esc fuel s (rv s) n) as [X [[He1 [HX [Hv1 Hd1]]] [Hge [Hlt8 [Hb1 Hdata]]]]];
    [lia|exact Hlen| | |].
  { unfold fuel. pose proof (N.div_mod n 8 ltac:(lia)). pose proof (N.mod_lt n 8 ltac:(lia)). lia. }
  { repeat split; try assumption. symmetry. apply N.mod_small.
    eapply N.lt_le_trans; [exact Hv|]. apply N.pow_le_mono_r; lia. }
  set (s1 := fill esc fuel s n) in *. rewrite He1, Hv1.
  (* only s1, X and what fill_stream says of them matter from here; lia is dear in a larger context *)
  clearbody s1. clear fuel He Hv Hd Hlen He1 Hv1. set (k := rn s1 - n).
  (* the n bits handed out are the top n of the rn s1 bits of X, the low k stay pending *)
  assert (Hsplit : rstream esc s (rv s)
                   = bits_of (N.to_nat n) (N.shiftr X k) ++ bits_of (N.to_nat k) X ++ bytes_to_bits (unread esc s1)).
  { rewrite <- Hb1. unfold rstream. replace (N.to_nat (rn s1)) with (N.to_nat n + N.to_nat k)%nat by lia.
    rewrite bits_of_app, N2Nat.id, <- app_assoc. reflexivity. }
  assert (Htop : N.shiftr X k < 2 ^ N.of_nat (N.to_nat n)).
  { rewrite N2Nat.id, N.shiftr_div_pow2. apply N.div_lt_upper_bound; [apply N.pow_nonzero; lia|].
    rewrite <- N.pow_add_r. replace (k + n) with (rn s1) by lia. exact HX. }
  rewrite Hsplit, firstn_app_len, skipn_app_len by apply bits_of_length.
  cbn [rn rdata]. split; [|split; [|split; [|split]]].
  - rewrite val_of_bits_of_small by exact Htop. apply shiftr_mod_pow2. lia.
  - unfold rstream. cbn [rn rv]. f_equal.
    rewrite N.land_ones, !bits_of_mod_le by lia. reflexivity.
  - split; [reflexivity|]. split; [|exact Hd1]. cbn [rv rn]. rewrite N.land_ones. apply N.mod_lt, N.pow_nonzero. lia.
  - lia.
  - exact Hdata.
Qed.

(* hence exact whenever the n bits and the k bits left pending fit the accumulator together *)
Lemma read_gen_fit esc s n :
  RInv s -> rn s < 8 -> n <= N.of_nat (length (rstream esc s (rv s))) ->
  n + rn (snd (read_gen esc s n)) <= 64 ->
  let '(v, s') := read_gen esc s n in
  v = val_of (firstn (N.to_nat n) (rstream esc s (rv s))) /\
  rstream esc s' (rv s') = skipn (N.to_nat n) (rstream esc s (rv s)) /\
  RInv s' /\ rn s' < 8 /\ rdata s' = rdata s.
Proof.
  intros HI Hrn Hlen. pose proof (read_gen_stream esc s n HI Hrn Hlen) as H.
  destruct (read_gen esc s n) as [v s']. cbn [snd]. intros Hfit. destruct H as [Hv H]. split; [|exact H].
  rewrite Hv. apply N.mod_small. eapply N.lt_le_trans; [apply val_of_firstn_lt; lia|].
  apply N.pow_le_mono_r; lia.
Qed.

(* in particular for every n <= 57, whatever the alignment *)
Lemma read_gen_exact esc s n :
  RInv s -> rn s < 8 -> n <= 57 -> n <= N.of_nat (length (rstream esc s (rv s))) ->
  let '(v, s') := read_gen esc s n in
  v = val_of (firstn (N.to_nat n) (rstream esc s (rv s))) /\
  rstream esc s' (rv s') = skipn (N.to_nat n) (rstream esc s (rv s)) /\
  RInv s' /\ rn s' < 8 /\ rdata s' = rdata s.
Proof.
  intros HI Hrn Hn Hlen. apply read_gen_fit; try assumption.
  pose proof (read_gen_stream esc s n HI Hrn Hlen) as H.
  destruct (read_gen esc s n) as [v s']. cbn [snd]. destruct H as [_ [_ [_ [H _]]]]. lia.
Qed.

(* and failing exactly when fewer than n bits are left, with no condition on the state at all *)
Lemma read_gen_short esc s n :
  N.of_nat (length (rstream esc s (rv s))) < n ->
  fst (read_gen esc s n) = 0 /\ rerr (snd (read_gen esc s n)) = true.
Proof.
  intros Hlen. unfold read_gen. destruct (rerr s) eqn:He; [split; [reflexivity|exact He]|].
  assert (Hf : rerr (fill esc (S (N.to_nat (n / 8) + 1)) s n) = true).
  { apply fill_short; [exact Hlen|]. pose proof (N.div_mod n 8 ltac:(lia)). pose proof (N.mod_lt n 8 ltac:(lia)). lia. }
  rewrite Hf. split; [reflexivity|exact Hf].
Qed.

Lemma read_gen_prefix esc s n pre rest :
  RGood s -> n <= 57 -> rstream esc s (rv s) = pre ++ rest -> length pre = N.to_nat n ->
  exists s', read_gen esc s n = (val_of pre, s') /\ rstream esc s' (rv s') = rest /\ RGood s' /\ rdata s' = rdata s.
Proof.
  intros [HI Hn8] Hn Hb Hl.
  pose proof (read_gen_exact esc s n HI Hn8 Hn ltac:(rewrite Hb, app_length; lia)) as H.
  destruct (read_gen esc s n) as [v s']. destruct H as [Hv [Hr [HI' [Hn' Hd]]]]. exists s'.
  rewrite Hb, firstn_app_len in Hv by exact Hl. rewrite Hb, skipn_app_len in Hr by exact Hl.
  subst v. split; [reflexivity|split; [exact Hr|split; [split; assumption|exact Hd]]].
Qed.

Lemma read_gen_fixed esc s w v rest :
  RGood s -> w <= 57 -> v < 2 ^ w -> rstream esc s (rv s) = bits_of (N.to_nat w) v ++ rest ->
  exists s', read_gen esc s w = (v, s') /\ rstream esc s' (rv s') = rest /\ RGood s' /\ rdata s' = rdata s.
Proof.
  intros HG Hw Hv Hb.
  destruct (read_gen_prefix esc s w _ rest HG Hw Hb (bits_of_length _ _)) as [s' [Hr H]].
  exists s'. split; [|exact H].
  rewrite Hr, val_of_bits_of_small by (rewrite N2Nat.id; exact Hv). reflexivity.
Qed.

(* ------------------------------------------------------------------ the EBSP reader up to 56 bits *)
Lemma fill_ok fuel : forall s n,
  RInv s -> n <= 56 -> rn s < n + 8 ->
  n <= N.of_nat (length (rbits s)) -> n <= rn s + 8 * N.of_nat fuel ->
  let s1 := fill true fuel s n in
  RInv s1 /\ n <= rn s1 /\ rn s1 < n + 8 /\ rbits s1 = rbits s /\ rdata s1 = rdata s
  /\ (n <= rn s -> s1 = s).
Proof. intros s n HI Hn. exact (fill_exact true fuel s n HI ltac:(lia)). Qed.

Lemma read_spec s n :
  RInv s -> rn s < 8 -> n <= 56 -> n <= N.of_nat (length (rbits s)) ->
  let '(v, s') := read s n in
  v = val_of (firstn (N.to_nat n) (rbits s)) /\
  rbits s' = skipn (N.to_nat n) (rbits s) /\
  RInv s' /\ rn s' < 8 /\ rdata s' = rdata s.
Proof. intros HI Hrn Hn. exact (read_gen_exact true s n HI Hrn ltac:(lia)). Qed.

Lemma rbits_init data : rbits (rinit data) = bytes_to_bits (unescape data).
Proof. reflexivity. Qed.

Lemma RInv_init data : Forall lt256 data -> RInv (rinit data).
Proof. intros H. unfold RInv, rinit; cbn [rerr rv rn rdata]. split; [reflexivity|split; [cbn; lia|exact H]]. Qed.

Lemma unescape_from_length_aux n : forall l z,
  (length l <= n)%nat -> (length (unescape_from z l) <= length l)%nat.
Proof.
  induction n as [|n IH]; intros l z Hl.
  - destruct l; [cbn; lia|cbn in Hl; lia].
  - destruct l as [|b t]; [cbn; lia|]. cbn [unescape_from].
    destruct ((z =? 2) && (b =? 3)).
    + destruct t as [|b' t']; [cbn; lia|]. cbn [length] in *.
      specialize (IH t' (if b' =? 0 then 1 else 0) ltac:(lia)). lia.
    + cbn [length] in *. specialize (IH t (if b =? 0 then z + 1 else 0) ltac:(lia)). lia.
Qed.

Lemma unescape_from_length z l : (length (unescape_from z l) <= length l)%nat.
Proof. apply (unescape_from_length_aux (length l)). lia. Qed.

Lemma rbits_length_le s :
  rn s < 8 -> (length (rbits s) <= 8 * length (rdata s) + 7)%nat.
Proof.
  intros Hn. unfold rbits, rrest. rewrite app_length, bits_of_length, bytes_to_bits_length.
  pose proof (unescape_from_length (rzc s) (skipn (N.to_nat (rpos s)) (rdata s))) as H1.
  rewrite skipn_length in H1. lia.
Qed.

Lemma read_prefix s n pre rest :
  RGood s -> n <= 56 -> rbits s = pre ++ rest -> length pre = N.to_nat n ->
  exists s', read s n = (val_of pre, s') /\ rbits s' = rest /\ RGood s' /\ rdata s' = rdata s.
Proof. intros HG Hn. exact (read_gen_prefix true s n pre rest HG ltac:(lia)). Qed.

Lemma read_fixed s w v rest :
  RGood s -> w <= 56 -> v < 2 ^ w -> rbits s = bits_of (N.to_nat w) v ++ rest ->
  exists s', read s w = (v, s') /\ rbits s' = rest /\ RGood s' /\ rdata s' = rdata s.
Proof. intros HG Hw. exact (read_gen_fixed true s w v rest HG ltac:(lia)). Qed.

Lemma read_bit s b rest :
  RGood s -> rbits s = b :: rest ->
  exists s', read s 1 = (N.b2n b, s') /\ rbits s' = rest /\ RGood s' /\ rdata s' = rdata s.
Proof.
  intros HG Hb. destruct (read_gen_prefix true s 1 [b] rest HG ltac:(lia) Hb eq_refl) as [s' [Hr H]].
  exists s'. split; [|exact H]. unfold read. rewrite Hr. destruct b; reflexivity.
Qed.

Lemma read_flag_spec s b rest :
  RGood s -> rbits s = b :: rest ->
  exists s', read_flag s = (b, s') /\ rbits s' = rest /\ RGood s' /\ rdata s' = rdata s.
Proof.
  intros HG Hb. unfold read_flag. destruct (read_bit s b rest HG Hb) as [s' [Hr H]].
  exists s'. rewrite Hr. split; [|exact H]. destruct b; reflexivity.
Qed.

Lemma lz_loop_spec q : forall fuel s lz rest,
  RGood s -> (q < fuel)%nat -> rbits s = repeat false q ++ true :: rest ->
  exists s', lz_loop fuel s lz = Some (lz + N.of_nat q, s') /\ rbits s' = rest /\ RGood s'
             /\ rdata s' = rdata s.
Proof.
  induction q as [|q IH]; intros fuel s lz rest HG Hf Hb; (destruct fuel as [|f]; [lia|]);
    cbn [lz_loop]; cbn [repeat app] in Hb;
    destruct (read_bit s _ _ HG Hb) as [s' [Hr [Hb' [HG' Hd]]]]; rewrite Hr, (RGood_err s' HG'); cbn [N.b2n N.eqb Pos.eqb].
  - exists s'. rewrite N.add_0_r. auto.
  - destruct (IH f s' (lz + 1) rest HG' ltac:(lia) Hb') as [s'' [Hl [Hb'' [HG'' Hd'']]]].
    exists s''. rewrite Hl. replace (lz + 1 + N.of_nat q) with (lz + N.of_nat (S q)) by lia.
    split; [reflexivity|split; [exact Hb''|split; [exact HG''|congruence]]].
Qed.

(* the code written by WriteExpGolomb, in the form the reader consumes it *)
Definition ue_code' (v : N) : list bool :=
  let q := N.to_nat (N.log2 (v + 1)) in
  repeat false q ++ true :: bits_of q (v + 1 - 2 ^ N.of_nat q).

(* q zero bits, a one and q more bits, decoded exactly up to q = 57 *)
Lemma read_ue_spec57 s v rest :
  RGood s -> v + 1 < 2 ^ 58 -> rbits s = ue_code' v ++ rest ->
  exists s', read_ue s = (v, s') /\ rbits s' = rest /\ RGood s' /\ rdata s' = rdata s.
Proof.
  intros HG Hv Hb. unfold read_ue, ue_code' in *.
  set (q := N.to_nat (N.log2 (v + 1))) in *.
  assert (Hq : 2 ^ N.of_nat q <= v + 1 < 2 ^ (N.of_nat q + 1)).
  { unfold q. rewrite N2Nat.id, (N.add_1_r (N.log2 _)). apply N.log2_spec. lia. }
  assert (Hq58 : N.of_nat q < 58) by (apply (N.pow_lt_mono_r_iff 2); lia).
  rewrite N.pow_add_r, N.pow_1_r in Hq.
  pose proof HG as [_ Hn8]. rewrite (RGood_err s HG).
  rewrite <- app_assoc in Hb. cbn [app] in Hb.
  assert (Hfu : (q < S (8 * length (rdata s) + 8))%nat).
  { pose proof (rbits_length_le s Hn8) as Hl. rewrite Hb, app_length, repeat_length in Hl. cbn [length] in Hl. lia. }
  destruct (lz_loop_spec q _ s 0 _ HG Hfu Hb) as [s1 [Hl [Hb1 [HG1 Hd1]]]].
  rewrite Hl, (RGood_err s1 HG1). cbn [N.add].
  destruct (read_gen_fixed true s1 (N.of_nat q) (v + 1 - 2 ^ N.of_nat q) rest HG1 ltac:(lia) ltac:(lia)
              ltac:(rewrite Nat2N.id; exact Hb1)) as [s2 [Hr [Hb2 [HG2 Hd2]]]].
  unfold read. rewrite Hr, (RGood_err s2 HG2).
  exists s2. split; [|split; [exact Hb2|split; [exact HG2|congruence]]].
  f_equal. rewrite N.shiftl_1_l. unfold u64.
  assert (Hp : 2 ^ N.of_nat q < 2 ^ 58) by (apply N.pow_lt_mono_r; lia).
  replace (2 ^ N.of_nat q + 18446744073709551615)
    with ((2 ^ N.of_nat q - 1) + 1 * 18446744073709551616) by lia.
  rewrite N.mod_add, (N.mod_small (2 ^ N.of_nat q - 1)), N.mod_small by lia. lia.
Qed.

Lemma read_ue_spec s v rest :
  RGood s -> v < 2 ^ 32 -> rbits s = ue_code' v ++ rest ->
  exists s', read_ue s = (v, s') /\ rbits s' = rest /\ RGood s' /\ rdata s' = rdata s.
Proof. intros HG Hv. apply read_ue_spec57; [exact HG|lia]. Qed.

Lemma ue_code_eq v : ue_code' v =
  let q := N.to_nat (N.log2 (v + 1)) in repeat false q ++ bits_of (S q) (v + 1).
Proof.
  unfold ue_code'. cbv zeta. rewrite bits_of_top; [reflexivity|].
  rewrite N2Nat.id, (N.add_1_r (N.log2 _)). apply N.log2_spec. lia.
Qed.

(* the mapping of ReadSignedGolomb inverts the standard's se(v) -> codeNum mapping *)
Lemma se_of_ue k :
  (if se_to_ue k mod 2 =? 1 then Z.of_N ((se_to_ue k + 1) / 2) else (- Z.of_N (se_to_ue k / 2))%Z) = k.
Proof.
  destruct k as [|p|p]; cbn [se_to_ue]; [reflexivity| |];
    match goal with |- context [?u mod 2 =? 1] => destruct (N.eqb_spec (u mod 2) 1) end; lia.
Qed.

Lemma read_se_spec57 s k rest :
  RGood s -> se_to_ue k + 1 < 2 ^ 58 -> rbits s = ue_code' (se_to_ue k) ++ rest ->
  exists s', read_se s = (k, s') /\ rbits s' = rest /\ RGood s' /\ rdata s' = rdata s.
Proof.
  intros HG Hk Hb. unfold read_se.
  destruct (read_ue_spec57 s _ rest HG Hk Hb) as [s' [Hr [Hb' [HG' Hd]]]].
  rewrite Hr, (RGood_err s' HG'). exists s'. split; [|auto].
  pose proof (se_of_ue k) as E. destruct (se_to_ue k mod 2 =? 1); rewrite E; reflexivity.
Qed.

Lemma read_se_spec s k rest :
  RGood s -> se_to_ue k < 2 ^ 32 -> rbits s = ue_code' (se_to_ue k) ++ rest ->
  exists s', read_se s = (k, s') /\ rbits s' = rest /\ RGood s' /\ rdata s' = rdata s.
Proof. intros HG Hk. apply read_se_spec57; [exact HG|lia]. Qed.

Lemma read_bytes_spec k : forall s l rest,
  RGood s -> length l = k -> Forall lt256 l -> rbits s = bytes_to_bits l ++ rest ->
  exists s', read_bytes k s = (l, s') /\ rbits s' = rest /\ RGood s' /\ rdata s' = rdata s.
Proof.
  induction k as [|k IH]; intros s l rest HG Hl Hlt Hb.
  - destruct l; [|discriminate]. exists s. repeat split; try apply HG. exact Hb.
  - destruct l as [|b t]; [discriminate|]. cbn [read_bytes].
    inversion Hlt as [|? ? Hb256 Ht]; subst.
    unfold bytes_to_bits in Hb. cbn [flat_map] in Hb. rewrite <- app_assoc in Hb.
    destruct (read_fixed s 8 b _ HG ltac:(lia) ltac:(exact Hb256) Hb) as [s1 [Hr [Hb1 [HG1 Hd1]]]].
    rewrite Hr.
    destruct (IH s1 t rest HG1 ltac:(cbn in Hl; lia) Ht Hb1) as [s2 [Hr2 [Hb2 [HG2 Hd2]]]].
    rewrite Hr2. exists s2. split; [|split; [exact Hb2|split; [exact HG2|congruence]]].
    rewrite land_255, N.mod_small by exact Hb256. reflexivity.
Qed.

(* ------------------------------------------------------------------ running out of data *)
Lemma fill_fail fuel : forall s n,
  RInv s -> n <= 56 -> N.of_nat (length (rbits s)) < n -> n <= rn s + 8 * N.of_nat fuel ->
  rerr (fill true fuel s n) = true.
Proof. intros s n _ _. exact (fill_short true fuel s n). Qed.

Lemma read_fail s n :
  RInv s -> rn s < 8 -> n <= 56 -> N.of_nat (length (rbits s)) < n ->
  fst (read s n) = 0 /\ rerr (snd (read s n)) = true.
Proof. intros _ _ _. exact (read_gen_short true s n). Qed.

(* once the error is set every read returns 0 and keeps the state *)
Lemma read_after_error s n : rerr s = true -> read s n = (0, s).
Proof. intros H. unfold read, read_gen. rewrite H. reflexivity. Qed.

(* ------------------------------------------------------------------ MoreRbspData *)
Lemma more_loop_spec : forall l fuel s,
  RGood s -> rbits s = l -> (length l < fuel)%nat -> more_loop fuel s = Some (existsb (fun b => b) l).
Proof.
  induction l as [|b t IH]; intros fuel s HG Hb Hf; (destruct fuel as [|f]; [cbn in Hf; lia|]); cbn [more_loop].
  - destruct (read_gen_short true s 1 ltac:(change (rstream true s (rv s)) with (rbits s); rewrite Hb; cbn; lia)) as [_ He].
    fold (read s 1) in He. destruct (read s 1) as [v s1]. cbn [snd] in He. rewrite He. reflexivity.
  - destruct (read_bit s b t HG Hb) as [s1 [Hr [Hb1 [HG1 Hd]]]].
    rewrite Hr, (RGood_err s1 HG1). cbn [existsb].
    destruct b; cbn [N.b2n N.eqb Pos.eqb orb]; [reflexivity|].
    apply IH; [exact HG1|exact Hb1|cbn in Hf; lia].
Qed.

(* MoreRbspData in the bit-stream view: there is more data unless the remaining bits are
   exactly a 1 followed by zeros (the rbsp trailing bits); the reader state is restored. *)
Lemma more_rbsp_data_spec s :
  RGood s ->
  match rbits s with
  | [] => fst (more_rbsp_data s) = None /\ rerr (snd (more_rbsp_data s)) = true
  | b :: t => more_rbsp_data s = (Some (negb b || existsb (fun x => x) t), s)
  end.
Proof.
  intros HG. unfold more_rbsp_data. pose proof HG as [_ Hn8]. rewrite (RGood_err s HG).
  destruct (rbits s) as [|b t] eqn:Hb.
  - destruct (read_gen_short true s 1 ltac:(change (rstream true s (rv s)) with (rbits s); rewrite Hb; cbn; lia)) as [_ Hf].
    fold (read s 1) in Hf. destruct (read s 1) as [v s1]. cbn [snd] in Hf. rewrite Hf. split; [reflexivity|exact Hf].
  - destruct (read_bit s b t HG Hb) as [s1 [Hr [Hb1 [HG1 Hd1]]]].
    rewrite Hr, (RGood_err s1 HG1).
    destruct b; cbn [N.b2n N.eqb Pos.eqb negb orb]; [|reflexivity].
    f_equal. apply more_loop_spec; [exact HG1|exact Hb1|].
    pose proof (rbits_length_le s Hn8) as Hl. rewrite Hb in Hl. cbn [length] in Hl. lia.
Qed.
