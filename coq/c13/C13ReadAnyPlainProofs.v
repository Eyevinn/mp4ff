(* C13ReadAnyPlainProofs.v — bits.Reader.Read(n) for every n (the plain instances of C13ReaderProofs.fill_stream /
   read_gen_stream) and Reader.ReadSigned in terms of the bits of the stream. *)
From V.lib Require Import Base.
From V.c13 Require Import C13Spec C13Model C13Bits C13EscProofs C13ReaderProofs C13PlainProofs C13ModelExt
  C13ReadAnyProofs C13SignedProofs.

Definition gpbits (s : rstate) (X : N) : list bool :=
  bits_of (N.to_nat (rn s)) X ++ bytes_to_bits (skipn (N.to_nat (rpos s)) (rdata s)).

Lemma fill_any_plain fuel : forall s X n,
  GInv s X -> rn s < n + 8 ->
  n <= N.of_nat (length (gpbits s X)) -> n <= rn s + 8 * N.of_nat fuel ->
  let s1 := fill false fuel s n in
  exists X1, GInv s1 X1 /\ n <= rn s1 /\ rn s1 < n + 8 /\ gpbits s1 X1 = gpbits s X /\ rdata s1 = rdata s.
Proof. intros s X n HI H1 H2 H3. exact (fill_stream false fuel s X n H1 H2 H3 HI). Qed.

Lemma read_any_plain s n :
  RInv s -> rn s < 8 -> n <= N.of_nat (length (pbits s)) ->
  let '(v, s') := read_plain s n in
  v = val_of (firstn (N.to_nat n) (pbits s)) mod 2 ^ (64 - rn s') /\
  pbits s' = skipn (N.to_nat n) (pbits s) /\
  RInv s' /\ rn s' < 8 /\ rdata s' = rdata s.
Proof. exact (read_gen_stream false s n). Qed.

(* the signed value of a bit string, most significant bit = sign *)
Definition sval_of (l : list bool) : Z :=
  match l with
  | [] => 0%Z
  | b :: t => (Z.of_N (val_of t) - (if b then 2 ^ Z.of_nat (length t) else 0))%Z
  end.

Lemma sval_of_spec l : l <> [] ->
  sval_of l = (if N.testbit (val_of l) (N.of_nat (length l) - 1)
               then (Z.of_N (val_of l) - 2 ^ Z.of_N (N.of_nat (length l)))%Z else Z.of_N (val_of l)).
Proof.
  destruct l as [|b t]; [congruence|]. intros _. cbn [sval_of val_of length].
  replace (N.of_nat (S (length t)) - 1) with (N.of_nat (length t)) by lia.
  pose proof (val_of_lt t) as Hlt.
  assert (Hpos : 0 < 2 ^ N.of_nat (length t)) by (apply pow2_pos).
  assert (Hz : (2 ^ Z.of_nat (length t))%Z = Z.of_N (2 ^ N.of_nat (length t))).
  { rewrite N2Z.inj_pow. f_equal. lia. }
  assert (Hz2 : (2 ^ Z.of_N (N.of_nat (S (length t))))%Z = (2 * Z.of_N (2 ^ N.of_nat (length t)))%Z).
  { rewrite <- Hz. replace (Z.of_N (N.of_nat (S (length t)))) with (Z.succ (Z.of_nat (length t))) by lia.
    apply Z.pow_succ_r. lia. }
  rewrite N.testbit_eqb.
  destruct b; cbn [N.b2n].
  - rewrite N.mul_1_l.
    replace ((2 ^ N.of_nat (length t) + val_of t) / 2 ^ N.of_nat (length t)) with 1.
    2:{ apply (N.div_unique _ (2 ^ N.of_nat (length t)) 1 (val_of t)); lia. }
    cbn [N.modulo N.eqb]. change (1 mod 2 =? 1) with true. cbv iota. rewrite Hz, Hz2. lia.
  - rewrite N.mul_0_l, N.add_0_l. rewrite N.div_small by exact Hlt.
    change (0 mod 2 =? 1) with false. cbv iota. lia.
Qed.

(* Reader.ReadSigned(n): the next n bits of the stream as a two's-complement number, for every width 1..64 that
   fits the accumulator together with the bits left pending (every n <= 57) *)
Lemma read_signed_stream s n :
  RInv s -> rn s < 8 -> 1 <= n -> n <= N.of_nat (length (pbits s)) ->
  n + rn (snd (read_plain s n)) <= 64 ->
  exists s', read_signed64 s n = Some (sval_of (firstn (N.to_nat n) (pbits s)), s') /\
             pbits s' = skipn (N.to_nat n) (pbits s) /\ RInv s' /\ rn s' < 8.
Proof.
  intros HI Hrn Hn1 Hlen Hfit. unfold read_signed64.
  pose proof (read_gen_fit false s n HI Hrn Hlen Hfit) as H.
  change (rstream false s (rv s)) with (pbits s) in H. fold (read_plain s n) in H.
  destruct (read_plain s n) as [v s']. destruct H as [Hv [Hb [HI' [Hrn' _]]]].
  destruct (N.eqb_spec n 0) as [E|_]; [lia|].
  exists s'. split; [|split; [exact Hb|split; assumption]].
  pose proof (val_of_firstn_lt (pbits s) n ltac:(lia)) as Hvl.
  assert (Hl : length (firstn (N.to_nat n) (pbits s)) = N.to_nat n) by (apply firstn_length_le; lia).
  rewrite Hv, (sext64_spec _ n ltac:(cbn [snd] in Hfit; lia) Hvl).
  rewrite sval_of_spec by (intros E; rewrite E in Hl; cbn in Hl; lia).
  rewrite Hl, N2Nat.id. reflexivity.
Qed.
