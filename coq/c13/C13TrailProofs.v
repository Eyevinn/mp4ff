(* C13TrailProofs.v — EBSPReader.ReadRbspTrailingBits in the bit-stream view, and the round trip
   completed by MoreRbspData = false and ReadRbspTrailingBits = nil at the end of the written values. *)
From V.lib Require Import Base.
From V.c13 Require Import C13Spec C13Model C13ModelExt C13Bits C13EscProofs C13MarkProofs C13WriterProofs C13ReaderProofs C13RoundTrip.

Definition is1 (b : bool) : bool := b.

(* the bits behind the first 1 of l *)
Fixpoint after_one (l : list bool) : list bool :=
  match l with
  | [] => []
  | true :: t => t
  | false :: t => after_one t
  end.

Lemma trail_loop_spec : forall l fuel s,
  RGood s -> rbits s = l -> (length l < fuel)%nat ->
  if existsb is1 l
  then exists s', trail_loop fuel s = Some (TSecondOne, s') /\ RGood s' /\ rbits s' = after_one l /\ rdata s' = rdata s
  else exists s', trail_loop fuel s = Some (TNil, s') /\ rerr s' = false.
Proof.
  induction l as [|b t IH]; intros fuel s HG Hb Hf; (destruct fuel as [|f]; [cbn in Hf; lia|]); cbn [trail_loop].
  - destruct (read_fail s 1 (proj1 HG) (proj2 HG) ltac:(lia) ltac:(rewrite Hb; cbn; lia)) as [_ He].
    destruct (read s 1) as [v s1]. cbn [snd] in He. rewrite He.
    exists (clear_err s1). split; reflexivity.
  - destruct (read_bit s b t HG Hb) as [s1 [Hr [Hb1 [HG1 Hd]]]].
    rewrite Hr, (RGood_err s1 HG1). cbn [existsb is1 after_one].
    destruct b; cbn [orb N.b2n N.eqb Pos.eqb].
    + exists s1. auto.
    + specialize (IH f s1 HG1 Hb1 ltac:(cbn in Hf; lia)).
      destruct (existsb is1 t); [|exact IH].
      destruct IH as [s' [H1 [H2 [H3 H4]]]]. exists s'. repeat split; try apply H2; congruence.
Qed.

(* ReadRbspTrailingBits: nil exactly on 1 0* (error cleared); "doesn't start with 1" on a leading 0;
   "another 1" when a second 1 follows; nil with the EOF left in AccError on an exhausted stream *)
Lemma read_trailing_spec s :
  RGood s ->
  match rbits s with
  | [] => exists s', read_trailing s = Some (TNil, s') /\ rerr s' = true
  | false :: t => exists s', read_trailing s = Some (TNoOne, s') /\ rbits s' = t /\ RGood s'
  | true :: t =>
      if existsb is1 t
      then exists s', read_trailing s = Some (TSecondOne, s') /\ RGood s' /\ rbits s' = after_one t
      else exists s', read_trailing s = Some (TNil, s') /\ rerr s' = false
  end.
Proof.
  intros HG. unfold read_trailing. pose proof HG as [HI Hn8]. rewrite (RGood_err s HG).
  destruct (rbits s) as [|b t] eqn:Hb.
  - destruct (read_fail s 1 HI Hn8 ltac:(lia) ltac:(rewrite Hb; cbn; lia)) as [_ Hf].
    destruct (read s 1) as [v s1]. cbn [snd] in Hf. rewrite Hf. exists s1. split; [reflexivity|exact Hf].
  - destruct (read_bit s b t HG Hb) as [s1 [Hr [Hb1 [HG1 Hd1]]]].
    rewrite Hr, (RGood_err s1 HG1).
    destruct b; cbn [N.b2n N.eqb Pos.eqb negb].
    + assert (Hfu : (length t < S (8 * length (rdata s) + 8))%nat).
      { pose proof (rbits_length_le s Hn8) as Hl. rewrite Hb in Hl. cbn [length] in Hl. lia. }
      pose proof (trail_loop_spec t _ s1 HG1 Hb1 Hfu) as H.
      destruct (existsb is1 t); [|exact H].
      destruct H as [s' [H1 [H2 [H3 _]]]]. exists s'. auto.
    + exists s1. auto.
Qed.

Lemma existsb_repeat_false k : existsb is1 (repeat false k) = false.
Proof. induction k as [|k IH]; [reflexivity|exact IH]. Qed.

(* the full round trip, including the end of the NAL unit: after the written values have been read
   back, MoreRbspData says false without moving, and ReadRbspTrailingBits accepts what
   WriteRbspTrailingBits wrote and leaves no error *)
Lemma trailing_roundtrip ops :
  forallb value_op ops = true ->
  let data := wout (run_writer (ops ++ [WTrail])) in
  exists s' s'',
    run_reader (map rop_of ops) (rinit data) = (map rval_of ops, s') /\
    more_rbsp_data s' = (Some false, s') /\
    read_trailing s' = Some (TNil, s'') /\ rerr s'' = false.
Proof.
  intros Hok data.
  destruct (written_read_back ops (forallb_Forall _ _ _ value_op_fits Hok)) as [s' [k [Hr [HG' Hb']]]].
  pose proof (more_rbsp_data_spec s' HG') as Hm.
  pose proof (read_trailing_spec s' HG') as Ht.
  rewrite Hb', existsb_repeat_false in Hm, Ht. destruct Ht as [s'' [Ht He]].
  exists s', s''. auto.
Qed.
