(* C13SignedProofs.v — Reader.ReadSigned's sign extension in 64-bit int arithmetic is two's complement for every
   width 1..64; ReadSignedGolomb's result always fits an int. *)
From V.lib Require Import Base.
From V.c13 Require Import C13Spec C13Model C13ModelExt.

Lemma pow2_pred n : 1 <= n -> 2 ^ n = 2 * 2 ^ (n - 1).
Proof. intros H. replace n with (N.succ (n - 1)) at 1 by lia. apply N.pow_succ_r'. Qed.

Lemma Zpow2_of_N n : (2 ^ Z.of_N n)%Z = Z.of_N (2 ^ n).
Proof. rewrite N2Z.inj_pow. reflexivity. Qed.

Lemma testbit_top v n : 1 <= n -> v < 2 ^ n -> N.testbit v (n - 1) = (2 ^ (n - 1) <=? v).
Proof.
  intros Hn Hv. rewrite N.testbit_eqb. rewrite (pow2_pred n Hn) in Hv.
  assert (Hpos : 0 < 2 ^ (n - 1)) by (apply pow2_pos).
  destruct (N.leb_spec (2 ^ (n - 1)) v) as [H|H].
  - replace (v / 2 ^ (n - 1)) with 1; [reflexivity|].
    apply (N.div_unique v (2 ^ (n - 1)) 1 (v - 2 ^ (n - 1))); lia.
  - rewrite N.div_small by exact H. reflexivity.
Qed.

Lemma lor_neg_pow2 a n : (0 <= a < 2 ^ n)%Z -> (0 <= n)%Z -> Z.lor a (Z.shiftl (-1) n) = (a - 2 ^ n)%Z.
Proof.
  intros Ha Hn.
  assert (Hland : Z.land a (Z.shiftl (-1) n) = 0%Z).
  { apply Z.bits_inj'. intros m Hm. rewrite Z.land_spec, Z.bits_0, Z.shiftl_spec by exact Hm.
    destruct (Z.ltb_spec m n) as [Hlt|Hge].
    - rewrite (Z.testbit_neg_r (-1) (m - n)) by lia. apply andb_false_r.
    - destruct (Z.eq_dec a 0) as [->|Hnz]; [rewrite Z.bits_0; reflexivity|].
      rewrite (Z.bits_above_log2 a m); [reflexivity|lia|].
      apply Z.lt_le_trans with n; [|exact Hge]. apply Z.log2_lt_pow2; lia. }
  rewrite <- Z.lxor_lor by exact Hland. rewrite <- Z.add_nocarry_lxor by exact Hland.
  rewrite Z.shiftl_mul_pow2 by exact Hn. lia.
Qed.

Lemma sext64_spec v n : 1 <= n <= 64 -> v < 2 ^ n ->
  sext64 v n = if N.testbit v (n - 1) then (Z.of_N v - 2 ^ Z.of_N n)%Z else Z.of_N v.
Proof.
  intros [Hn1 Hn64] Hv. rewrite (testbit_top v n Hn1 Hv). unfold sext64, to_int64.
  change 9223372036854775808 with (2 ^ 63). change 18446744073709551616%Z with (2 ^ 64)%Z.
  destruct (N.eq_dec n 64) as [->|Hne].
  - (* nr >> 63 is 0 or -1, never 1: no extension, int(v) is the value already *)
    change (64 - 1) with 63. change (Z.of_N 63) with 63%Z. change (Z.of_N 64) with 64%Z.
    rewrite Z.shiftr_div_pow2 by lia.
    destruct (N.ltb_spec v (2 ^ 63)), (N.leb_spec (2 ^ 63) v); try lia;
      match goal with |- context [(?a =? 1)%Z] => destruct (Z.eqb_spec a 1) end; (reflexivity || lia).
  - assert (Hp63 : 2 ^ n <= 2 ^ 63) by (apply N.pow_le_mono_r; lia).
    destruct (N.ltb_spec v (2 ^ 63)) as [_|H]; [|lia].
    pose proof (pow2_pred n Hn1) as Hp. pose proof (pow2_pos (n - 1)) as Hpos.
    rewrite Z.shiftr_div_pow2, Zpow2_of_N by lia.
    destruct (N.leb_spec (2 ^ (n - 1)) v) as [Hge|Hlt].
    + replace (Z.of_N v / Z.of_N (2 ^ (n - 1)))%Z with 1%Z.
      2:{ apply (Z.div_unique (Z.of_N v) (Z.of_N (2 ^ (n - 1))) 1 (Z.of_N v - Z.of_N (2 ^ (n - 1)))); [left|]; lia. }
      cbn [Z.eqb Pos.eqb]. apply lor_neg_pow2; [rewrite Zpow2_of_N; lia|lia].
    + rewrite Z.div_small by lia. reflexivity.
Qed.

(* the arithmetic never leaves the int range: ReadSigned(n) of an n-bit field, 1 <= n <= 64 *)
Lemma sext64_range v n : 1 <= n <= 64 -> v < 2 ^ n ->
  (- 2 ^ (Z.of_N n - 1) <= sext64 v n < 2 ^ (Z.of_N n - 1))%Z.
Proof.
  intros Hn Hv. rewrite (sext64_spec v n Hn Hv), (testbit_top v n (proj1 Hn) Hv).
  replace (Z.of_N n - 1)%Z with (Z.of_N (n - 1)) by lia. rewrite !Zpow2_of_N.
  rewrite (pow2_pred n (proj1 Hn)) in *. destruct (N.leb_spec (2 ^ (n - 1)) v); lia.
Qed.

(* two's complement round trip through the plain writer's masking: the low n bits of a signed value in range *)
Lemma sext64_twos z n : 1 <= n <= 64 -> (- 2 ^ (Z.of_N n - 1) <= z < 2 ^ (Z.of_N n - 1))%Z ->
  sext64 (Z.to_N (z mod 2 ^ Z.of_N n)) n = z.
Proof.
  intros Hn Hz. replace (Z.of_N n - 1)%Z with (Z.of_N (n - 1)) in Hz by lia.
  rewrite Zpow2_of_N in *. pose proof (pow2_pred n (proj1 Hn)) as Hp. pose proof (pow2_pos (n - 1)) as Hpos.
  set (m := (z mod Z.of_N (2 ^ n))%Z).
  assert (Hm : (0 <= m < Z.of_N (2 ^ n))%Z) by (apply Z.mod_pos_bound; lia).
  assert (Hv : Z.to_N m < 2 ^ n) by lia.
  rewrite (sext64_spec _ n Hn Hv), (testbit_top _ n (proj1 Hn) Hv), Zpow2_of_N, Z2N.id by lia.
  assert (Em : m = if (z <? 0)%Z then (z + Z.of_N (2 ^ n))%Z else z).
  { unfold m. destruct (Z.ltb_spec z 0); [|apply Z.mod_small; lia].
    symmetry. apply (Z.mod_unique z (Z.of_N (2 ^ n)) (-1)); [left; lia|lia]. }
  clearbody m. destruct (Z.ltb_spec z 0); destruct (N.leb_spec (2 ^ (n - 1)) (Z.to_N m)); lia.
Qed.

(* ReadExpGolomb returns a uint; ReadSignedGolomb's conversions to int never overflow *)
Lemma read_ue_u64 s : fst (read_ue s) < 18446744073709551616.
Proof.
  unfold read_ue. destruct (rerr s); [cbn; lia|].
  destruct (lz_loop _ s 0) as [[lz s1]|]; [|cbn; lia].
  destruct (rerr s1); [cbn; lia|].
  destruct (read s1 lz) as [e s2]. destruct (rerr s2); [cbn; lia|].
  cbn [fst]. unfold u64. apply N.mod_lt. lia.
Qed.

Lemma read_se64_fits_int s :
  (- 9223372036854775807 <= fst (read_se64 s) <= 9223372036854775807)%Z.
Proof.
  unfold read_se64. pose proof (read_ue_u64 s) as Hu. destruct (read_ue s) as [u s1]. cbn [fst] in Hu.
  destruct (rerr s1); [cbn; lia|].
  destruct (N.eqb_spec (u mod 2) 1) as [Hodd|Heven]; cbn [fst].
  - assert (H : u64 (u + 1) / 2 <= 9223372036854775807).
    { unfold u64. pose proof (N.mod_lt (u + 1) 18446744073709551616 ltac:(lia)) as Hm.
      apply N.lt_succ_r. apply N.div_lt_upper_bound; lia. }
    lia.
  - assert (H : u / 2 <= 9223372036854775807).
    { apply N.lt_succ_r. apply N.div_lt_upper_bound; [lia|].
      destruct (N.eq_dec u 18446744073709551615) as [->|]; [exfalso; apply Heven; reflexivity|lia]. }
    lia.
Qed.
