(* C13EscProofs.v — byte-level facts about the emulation-prevention specification. *)
From V.lib Require Import Base.
From V.c13 Require Import C13Spec.

(* ---------- unescape inverts escape (from any zero-run state 0..2) ---------- *)
Lemma unescape_escape_from z l : z <= 2 -> unescape_from z (escape_from z l) = l.
Proof.
  revert z. induction l as [|b t IH]; intros z Hz; [reflexivity|].
  cbn [escape_from].
  destruct ((z =? 2) && (b <=? 3)) eqn:E.
  - apply andb_true_iff in E. destruct E as [E1 E2].
    apply N.eqb_eq in E1. apply N.leb_le in E2. subst z.
    cbn [unescape_from]. rewrite N.eqb_refl. cbn [andb N.eqb Pos.eqb].
    f_equal. apply IH. destruct (b =? 0); lia.
  - cbn [unescape_from].
    destruct ((z =? 2) && (b =? 3)) eqn:E'.
    + apply andb_true_iff in E'. destruct E' as [E1 E2].
      apply N.eqb_eq in E2. subst b. rewrite E1 in E. cbn in E. discriminate.
    + f_equal. apply IH.
      apply andb_false_iff in E. destruct (N.eqb_spec b 0); [|lia].
      destruct E as [E|E]; [apply N.eqb_neq in E; lia|].
      subst b. cbn in E. discriminate.
Qed.

Lemma unescape_escape l : unescape (escape l) = l.
Proof. apply unescape_escape_from. lia. Qed.

(* ---------- no forbidden triple in escaped output ---------- *)
(* generalised: with z zero bytes already in front *)
Definition zeros (z : N) : list N := repeat 0 (N.to_nat z).

Lemma forbidden_cons3 a b c t :
  forbidden (a :: b :: c :: t) = ((a =? 0) && (b =? 0) && (c <=? 2)) || forbidden (b :: c :: t).
Proof. reflexivity. Qed.

(* a non-zero byte is neither first nor second in a forbidden triple: the search splits there *)
Lemma forbidden_cut p a t :
  a <> 0 -> forbidden (p ++ a :: t) = forbidden (p ++ [a]) || forbidden t.
Proof.
  intros Ha. apply N.eqb_neq in Ha.
  assert (H0 : forall u, forbidden (a :: u) = forbidden u).
  { intros [|b [|c u]]; try reflexivity. rewrite forbidden_cons3, Ha. reflexivity. }
  induction p as [|x p IH]; [exact (H0 t)|].
  destruct p as [|y [|w p]]; cbn [app] in *.
  - destruct t as [|c t]; [reflexivity|]. rewrite forbidden_cons3, Ha, andb_false_r, H0. reflexivity.
  - rewrite !forbidden_cons3, IH. apply orb_assoc.
  - rewrite !forbidden_cons3, IH. apply orb_assoc.
Qed.

Lemma no_forbidden_from z l :
  z <= 2 -> forbidden (zeros z ++ escape_from z l) = false.
Proof.
  (* z = 0, 1, 2, each with b = 0 (the zero run grows, or is escaped) and b <> 0 (the search is cut at b) *)
  revert z. induction l as [|b t IH]; intros z Hz;
    (assert (z = 0 \/ z = 1 \/ z = 2) as [-> | [-> | ->]] by lia); try reflexivity;
    cbn [escape_from N.eqb Pos.eqb andb]; destruct (N.eqb_spec b 0) as [->|Hb].
  - exact (IH 1 ltac:(lia)).
  - rewrite forbidden_cut by exact Hb. exact (IH 0 ltac:(lia)).
  - exact (IH 2 ltac:(lia)).
  - rewrite forbidden_cut by exact Hb. cbn [zeros N.to_nat repeat app forbidden orb]. exact (IH 0 ltac:(lia)).
  - (* 0 0 | 3 0 ... *)
    change (forbidden ([0; 0] ++ 3 :: zeros 1 ++ escape_from 1 t) = false).
    rewrite forbidden_cut by discriminate. exact (IH 1 ltac:(lia)).
  - destruct (N.leb_spec b 3) as [H3|H3].
    + (* 0 0 | 3 b ... *)
      change (forbidden ([0; 0] ++ 3 :: [] ++ b :: escape_from 0 t) = false).
      rewrite forbidden_cut by discriminate. rewrite (forbidden_cut []) by exact Hb. exact (IH 0 ltac:(lia)).
    + rewrite forbidden_cut by exact Hb. change (zeros 2) with [0; 0]. cbn [app forbidden].
      destruct (N.leb_spec b 2); [lia|]. exact (IH 0 ltac:(lia)).
Qed.

Lemma no_forbidden l : forbidden (escape l) = false.
Proof. exact (no_forbidden_from 0 l ltac:(lia)). Qed.
