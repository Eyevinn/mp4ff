(* C13Theorems.v — the property theorems of C13 and nothing else.  Each is closed by
   `exact <lemma>` and followed by Print Assumptions (audited by ./check on every run).
   Model: C13Model.v (hand transcription of bits/ebspwriter.go, ebspreader.go, writer.go,
   reader.go); spec: C13Spec.v (escape / unescape / forbidden), C13Bits.v (bit lists). *)
From V.lib Require Import Base.
From V.c13 Require Import C13Spec C13Model C13Bits C13EscProofs C13MarkProofs
  C13WriterProofs C13ReaderProofs C13RoundTrip C13PlainProofs
  C13ModelExt C13TrailProofs C13FswProofs C13FswRoundTrip C13ByteWriterProofs
  C13WideProofs C13StickyProofs C13FailProofs C13ExactProofs C13SpillProofs C13SignedProofs C13UeLoopProofs C13ReadAnyProofs C13ReadAnyPlainProofs
  C13ModelTail C13TailProofs2 C13UeAnyProofs.

(* ---- emulation prevention, byte level, every byte string ---- *)
Theorem C13_unescape_escape : forall l : list N, unescape (escape l) = l.
Proof. exact unescape_escape. Qed.
Print Assumptions C13_unescape_escape.

Theorem C13_no_forbidden : forall l : list N, forbidden (escape l) = false.
Proof. exact no_forbidden. Qed.
Print Assumptions C13_no_forbidden.

(* every 00 00 03 in the escaped stream ends at an inserted byte *)
Theorem C13_every_003_is_escape : forall l, all_003_inserted (escape_marked l) = true.
Proof. exact all_003_escape. Qed.
Print Assumptions C13_every_003_is_escape.

(* every inserted byte is required: it follows two zero bytes and precedes a byte <= 3, so
   deleting it would leave a forbidden-or-ambiguous 00 00 0x *)
Theorem C13_minimal : forall l, inserted_needed false false (escape_marked l) = true.
Proof. exact inserted_needed_escape. Qed.
Print Assumptions C13_minimal.

Theorem C13_marked_is_escape : forall l, map fst (escape_marked l) = escape l.
Proof. exact (escape_marked_fst 0). Qed.
Print Assumptions C13_marked_is_escape.

(* ---- the word-level EBSP writer (64-bit accumulator, drain loop, zero-run counter) ---- *)
(* one Write call appends exactly the n low bits of `bits` to the logical stream, whatever
   the split of the stream into calls; bytes already written are the escaping of `raw` *)
Theorem C13_write_appends_bits : forall esc s raw bits n,
  WInv esc s raw -> n <= 56 ->
  exists raw',
    WInv esc (write_gen esc s bits n) raw' /\
    bytes_to_bits raw' ++ pending (write_gen esc s bits n)
    = bytes_to_bits raw ++ pending s ++ bits_of (N.to_nat n) bits /\
    exists added, raw' = raw ++ added /\ Forall (fun b => b < 256) added.
Proof. exact write_gen_spec. Qed.
Print Assumptions C13_write_appends_bits.

(* any op sequence (fixed width <= 56, flag, ue/se < 2^32, SEI value, trailing bits, stuffing):
   output = standard escaping of the whole bytes of the concatenated bit codes *)
Theorem C13_writer_is_escape : forall ops,
  forallb op_ok ops = true ->
  exists raw, wout (run_writer ops) = escape raw /\
              bytes_to_bits raw ++ pending (run_writer ops) = all_bits ops /\
              (length (pending (run_writer ops)) < 8)%nat /\
              Forall (fun b => b < 256) raw.
Proof. exact writer_is_escape. Qed.
Print Assumptions C13_writer_is_escape.

(* the Exp-Golomb prefix loop computes floor(log2(nr+1)) and the suffix *)
Theorem C13_ue_loop : forall nr, nr + 1 < 2 ^ 64 ->
  exists q, ue_loop 64 nr 0 0 0 = (q, nr + 1 - 2 ^ q) /\ 2 ^ q <= nr + 1 < 2 ^ (q + 1).
Proof. exact ue_loop_top. Qed.
Print Assumptions C13_ue_loop.

(* ---- the word-level EBSP reader ---- *)
(* Read n returns the next n bits of the UNESCAPED stream and advances by n *)
Theorem C13_read_bits : forall s n,
  RInv s -> rn s < 8 -> n <= 56 -> n <= N.of_nat (length (rbits s)) ->
  let '(v, s') := read s n in
  v = val_of (firstn (N.to_nat n) (rbits s)) /\
  rbits s' = skipn (N.to_nat n) (rbits s) /\
  RInv s' /\ rn s' < 8 /\ rdata s' = rdata s.
Proof. exact read_spec. Qed.
Print Assumptions C13_read_bits.

Theorem C13_read_past_end : forall s n,
  RInv s -> rn s < 8 -> n <= 56 -> N.of_nat (length (rbits s)) < n ->
  fst (read s n) = 0 /\ rerr (snd (read s n)) = true.
Proof. exact read_fail. Qed.
Print Assumptions C13_read_past_end.

(* ReadBytes over an escaped stream returns the bytes that were escaped *)
Theorem C13_reader_bytes : forall l, Forall (fun b => b < 256) l ->
  exists s', read_bytes (length l) (rinit (escape l)) = (l, s') /\ rerr s' = false /\ rbits s' = [].
Proof. exact reader_bytes. Qed.
Print Assumptions C13_reader_bytes.

(* the same at ANY bit alignment (RGood s: 0..7 bits pending in the accumulator, any position): ReadBytes(k) returns the
   next k bytes of the unescaped bit stream, whatever was read before it - k is unbounded *)
Theorem C13_reader_bytes_unaligned : forall k s l rest,
  RGood s -> length l = k -> Forall lt256 l -> rbits s = bytes_to_bits l ++ rest ->
  exists s', read_bytes k s = (l, s') /\ rbits s' = rest /\ RGood s' /\ rdata s' = rdata s.
Proof. exact read_bytes_spec. Qed.
Print Assumptions C13_reader_bytes_unaligned.

Example ex_reader_bytes_unaligned :
  let s := snd (read (rinit [255; 129; 255; 128; 255; 255; 254; 255; 129; 255; 170]) 3) in
  rn s = 5 /\ fst (read_bytes 9 s) = [252; 15; 252; 7; 255; 255; 247; 252; 15].
Proof. vm_compute. split; reflexivity. Qed.

Theorem C13_read_ue : forall s v rest,
  RGood s -> v < 2 ^ 32 -> rbits s = ue_code' v ++ rest ->
  exists s', read_ue s = (v, s') /\ rbits s' = rest /\ RGood s' /\ rdata s' = rdata s.
Proof. exact read_ue_spec. Qed.
Print Assumptions C13_read_ue.

Theorem C13_se_mapping : forall s k rest,
  RGood s -> se_to_ue k < 2 ^ 32 -> rbits s = ue_code' (se_to_ue k) ++ rest ->
  exists s', read_se s = (k, s') /\ rbits s' = rest /\ RGood s' /\ rdata s' = rdata s.
Proof. exact read_se_spec. Qed.
Print Assumptions C13_se_mapping.

(* MoreRbspData = "the unread bits are not 1 0*", reader state restored exactly *)
Theorem C13_more_rbsp : forall s,
  RGood s ->
  match rbits s with
  | [] => fst (more_rbsp_data s) = None /\ rerr (snd (more_rbsp_data s)) = true
  | b :: t => more_rbsp_data s = (Some (negb b || existsb (fun x => x) t), s)
  end.
Proof. exact more_rbsp_data_spec. Qed.
Print Assumptions C13_more_rbsp.

(* counters report positions in the escaped stream: rpos bytes of the input consumed *)
Theorem C13_counters : forall s, rn s < 8 ->
  nr_bytes_read s = rpos s /\ nr_bits_read s = (8 * Z.of_N (rpos s) - Z.of_N (rn s))%Z.
Proof. exact counters_spec. Qed.
Print Assumptions C13_counters.

(* ---- the round trip: any sequence of fixed-width (1..32, value fits), flag, ue (< 2^32) and
   se values written with the EBSP writer (+ rbsp trailing bits) is read back identically ---- *)
Theorem C13_reader_inverse : forall ops,
  forallb value_op ops = true ->
  let data := wout (run_writer (ops ++ [WTrail])) in
  exists s', run_reader (map rop_of ops) (rinit data) = (map rval_of ops, s') /\ rerr s' = false.
Proof. exact reader_inverse. Qed.
Print Assumptions C13_reader_inverse.

(* ---- bits.Writer / FixedSliceWriter.WriteBits + Flush, read back with bits.Reader ---- *)
Theorem C13_plain_roundtrip : forall ops,
  forallb plain_op ops = true ->
  let data := wout (flush_plain (run_writer_plain ops)) in
  exists s', fold_left (fun '(acc, st) o =>
               match o with
               | WBits _ w => let '(v, st') := read_plain st w in (acc ++ [v], st')
               | _ => let '(v, st') := read_plain st 1 in (acc ++ [v], st')
               end) ops ([], rinit data)
             = (map (fun o => match o with WBits v _ => v | WFlag b => N.b2n b | _ => 0 end) ops, s')
             /\ rerr s' = false.
Proof. exact plain_roundtrip. Qed.
Print Assumptions C13_plain_roundtrip.

(* ---- EBSPReader.ReadRbspTrailingBits (model: C13ModelExt.read_trailing) ---- *)
(* nil exactly on 1 0* (the EOF it ran into is cleared); "doesn't start with 1" on a leading 0;
   "another 1" when a second 1 follows; on an exhausted stream nil with the error left set *)
Theorem C13_read_trailing : forall s,
  RGood s ->
  match rbits s with
  | [] => exists s', read_trailing s = Some (TNil, s') /\ rerr s' = true
  | false :: t => exists s', read_trailing s = Some (TNoOne, s') /\ rbits s' = t /\ RGood s'
  | true :: t =>
      if existsb is1 t
      then exists s', read_trailing s = Some (TSecondOne, s') /\ RGood s' /\ rbits s' = after_one t
      else exists s', read_trailing s = Some (TNil, s') /\ rerr s' = false
  end.
Proof. exact read_trailing_spec. Qed.
Print Assumptions C13_read_trailing.

(* the round trip to the end of the NAL unit: values read back, then MoreRbspData = false without
   moving, then ReadRbspTrailingBits accepts what WriteRbspTrailingBits wrote, no error left *)
Theorem C13_trailing_roundtrip : forall ops,
  forallb value_op ops = true ->
  let data := wout (run_writer (ops ++ [WTrail])) in
  exists s' s'',
    run_reader (map rop_of ops) (rinit data) = (map rval_of ops, s') /\
    more_rbsp_data s' = (Some false, s') /\
    read_trailing s' = Some (TNil, s'') /\ rerr s'' = false.
Proof. exact trailing_roundtrip. Qed.
Print Assumptions C13_trailing_roundtrip.

(* ---- FixedSliceWriter (model: C13ModelExt.fsw, every Write* method except WriteString) ---- *)
Theorem C13_fsw_within_capacity : forall cap ops, foff (run_fsw cap ops) <= cap.
Proof. exact run_fsw_within_capacity. Qed.
Print Assumptions C13_fsw_within_capacity.

(* WriteBits / WriteFlag / FlushBits do nothing at all once the accumulated error is set *)
Theorem C13_fsw_sticky : forall s, ferr s = true ->
  (forall v n, fwrite_bits s v n = s) /\ (forall b, fstep s (FFlag b) = s) /\ fflush s = s.
Proof. exact fsw_sticky. Qed.
Print Assumptions C13_fsw_sticky.

(* with enough room the bit methods ARE the plain Writer (any widths, any values, Flush anywhere) *)
Theorem C13_fsw_refines_writer : forall cap ops,
  forallb pf_op ops = true ->
  N.of_nat (length (wout (run_writer_plain ops))) <= cap ->
  fbytes (run_fsw cap (map wop_fop ops)) = wout (run_writer_plain ops) /\
  ferr (run_fsw cap (map wop_fop ops)) = false.
Proof. exact fsw_refines_writer. Qed.
Print Assumptions C13_fsw_refines_writer.

Theorem C13_fsw_roundtrip : forall cap ops,
  forallb plain_op ops = true ->
  N.of_nat (length (wout (flush_plain (run_writer_plain ops)))) <= cap ->
  let data := fbytes (run_fsw cap (map wop_fop (ops ++ [WFlush]))) in
  ferr (run_fsw cap (map wop_fop (ops ++ [WFlush]))) = false /\
  exists s', fold_left (fun '(acc, st) o =>
               match o with
               | WBits _ w => let '(v, st') := read_plain st w in (acc ++ [v], st')
               | _ => let '(v, st') := read_plain st 1 in (acc ++ [v], st')
               end) ops ([], rinit data)
             = (map (fun o => match o with WBits v _ => v | WFlag b => N.b2n b | _ => 0 end) ops, s')
             /\ rerr s' = false.
Proof. exact fsw_roundtrip. Qed.
Print Assumptions C13_fsw_roundtrip.

(* byte-level methods with enough room: the big-endian encodings, concatenated, no error *)
Theorem C13_fsw_byte_ops : forall cap ops bss,
  map fop_bytes ops = map Some bss ->
  N.of_nat (length (concat bss)) <= cap ->
  fbytes (run_fsw cap ops) = concat bss /\ ferr (run_fsw cap ops) = false.
Proof. exact fsw_byte_ops. Qed.
Print Assumptions C13_fsw_byte_ops.

(* k big-endian bytes decode to the value modulo 2^(8k) *)
Theorem C13_be_roundtrip : forall k v, be_val (be_bytes k v) = v mod 2 ^ (8 * N.of_nat k).
Proof. exact be_val_bytes. Qed.
Print Assumptions C13_be_roundtrip.

(* ---- ByteWriter over a writer that accepts cap bytes ---- *)
Theorem C13_bytewriter : forall cap ops,
  bbytes (run_bw cap ops) = firstn (N.to_nat cap) (concat (map bop_bytes ops)) /\
  berr (run_bw cap ops) = (cap <? N.of_nat (length (concat (map bop_bytes ops)))).
Proof. exact bw_spec. Qed.
Print Assumptions C13_bytewriter.

Theorem C13_bytewriter_sticky : forall s o, berr s = true -> bstep s o = s.
Proof. exact bw_sticky. Qed.
Print Assumptions C13_bytewriter_sticky.

(* ---- non-vacuity: concrete non-trivial instances ---- *)
Example ex_ops : list wop := [WBits 0 16; WBits 3 8; WUe 4294967294; WSe (-7)%Z; WFlag true; WBits 0 24; WBits 1 7].
Example ex_ops_ok : forallb value_op ex_ops = true.
Proof. vm_compute. reflexivity. Qed.
Example ex_ops_escapes : wout (run_writer (ex_ops ++ [WTrail])) =
  [0;0;3;3;0;0;3;0;1;255;255;255;254;62;0;0;3;0;6].
Proof. vm_compute. reflexivity. Qed.
Example ex_read_back :
  fst (run_reader (map rop_of ex_ops) (rinit (wout (run_writer (ex_ops ++ [WTrail]))))) = map rval_of ex_ops.
Proof. vm_compute. reflexivity. Qed.
Example ex_escape : escape [0;0;0;0;1;0;0;3;255] = [0;0;3;0;0;3;1;0;0;3;3;255].
Proof. vm_compute. reflexivity. Qed.

(* the extension: trailing bits accepted / rejected, FixedSliceWriter tight and roomy, ByteWriter cut *)
Example ex_trailing_ok :
  let s := snd (run_reader (map rop_of ex_ops) (rinit (wout (run_writer (ex_ops ++ [WTrail]))))) in
  option_map fst (read_trailing s) = Some TNil /\ fst (more_rbsp_data s) = Some false.
Proof. vm_compute. split; reflexivity. Qed.
Example ex_trailing_bad :
  option_map fst (read_trailing (rinit [144])) = Some TSecondOne /\
  option_map fst (read_trailing (rinit [64])) = Some TNoOne /\
  option_map fst (read_trailing (rinit [128; 0; 0; 3])) = Some TNil.
Proof. vm_compute. repeat split; reflexivity. Qed.
Example ex_fops : list fop := [FU 4 4294901760; FBits 5 3; FU24 16909060; FFlag true; FFlush; FI 2 (-2)%Z; FU48 1108152157446].
Example ex_fsw_roomy : fbytes (run_fsw 64 ex_fops) = [255;255;0;0;2;3;4;176;255;254;1;2;3;4;5;6] /\ ferr (run_fsw 64 ex_fops) = false.
Proof. vm_compute. split; reflexivity. Qed.
Example ex_fsw_tight : fbytes (run_fsw 6 ex_fops) = [255;255;0;0;255;254] /\ ferr (run_fsw 6 ex_fops) = true.
Proof. vm_compute. split; reflexivity. Qed.
Example ex_pf_ops : forallb pf_op [WBits 5 3; WFlush; WFlag true; WBits 1023 9; WFlush] = true /\
  wout (run_writer_plain [WBits 5 3; WFlush; WFlag true; WBits 1023 9; WFlush]) = [160; 191; 248].
Proof. vm_compute. split; reflexivity. Qed.
Example ex_bw : bbytes (run_bw 9 [BU 2 258; BU48 1108152157446; BU 4 7; BSlice [9]]) = [1;2;1;2;3;4;5;6;0] /\
  berr (run_bw 9 [BU 2 258; BU48 1108152157446; BU 4 7; BSlice [9]]) = true.
Proof. vm_compute. split; reflexivity. Qed.

(* ---- exact domains, failing sinks, sticky errors ---- *)
(* (related statements are grouped into one theorem each: every Print Assumptions costs about a second) *)

(* ---- Write(bits, n) for every width ---- *)
(* (1) any n (for n > 64: Go's shifts by >= 64 give 0 and Mask(n) is all ones): the stream receives the n low bits of `bits`, preceded by the pending bits with those that do not
       fit the 64-bit accumulator beside them replaced by zeros; nothing else changes;
   (2) the zeroed bits are exactly the topmost pending + n - 64 pending bits (all of them for n >= 64);
   (3) so with pending + n <= 64 (every n <= 57 at any alignment, 64 at a byte boundary, n = 0) nothing is lost;
   (4) a value wider than n bits is masked, never spilled into the neighbouring values *)
Theorem C13_write_widths :
  (forall esc s raw bits n,
     WInv esc s raw ->
     exists raw',
       WInv esc (write_gen esc s bits n) raw' /\
       bytes_to_bits raw' ++ pending (write_gen esc s bits n)
       = bytes_to_bits raw ++ bits_of (N.to_nat (wn s)) (wv s mod 2 ^ (64 - n)) ++ bits_of (N.to_nat n) bits /\
       exists added, raw' = raw ++ added /\ Forall (fun b => b < 256) added) /\
  (forall wn0 wv0 n,
     bits_of wn0 (wv0 mod 2 ^ (64 - n))
     = repeat false (wn0 - N.to_nat (64 - n)) ++ bits_of (Nat.min wn0 (N.to_nat (64 - n))) wv0) /\
  (forall esc s raw bits n,
     WInv esc s raw -> wn s + n <= 64 ->
     exists raw',
       WInv esc (write_gen esc s bits n) raw' /\
       bytes_to_bits raw' ++ pending (write_gen esc s bits n)
       = bytes_to_bits raw ++ pending s ++ bits_of (N.to_nat n) bits /\
       exists added, raw' = raw ++ added /\ Forall (fun b => b < 256) added) /\
  (forall esc s bits n, write_gen esc s bits n = write_gen esc s (bits mod 2 ^ n) n).
Proof. exact (conj write_gen_any (conj pending_truncated (conj write_gen_fit write_gen_masks))). Qed.
Print Assumptions C13_write_widths.

(* ---- EBSPReader.Read(n) for every width ---- *)
(* (1) Read(n) returns the true n-bit value modulo 2^(64 - k), k = the bits left pending afterwards (the refill loop
       shifts whole bytes through the 64-bit accumulator); the position in the stream is right in every case;
   (2) hence exact whenever n + k <= 64, e.g. 64 bits that end at a byte boundary;
   (3) in particular for every n <= 57 at any alignment;
   (4) and it fails (0, error set) exactly when fewer than n bits are left *)
Theorem C13_read_widths :
  (forall s n,
     RInv s -> rn s < 8 -> n <= N.of_nat (length (rbits s)) ->
     let '(v, s') := read s n in
     v = val_of (firstn (N.to_nat n) (rbits s)) mod 2 ^ (64 - rn s') /\
     rbits s' = skipn (N.to_nat n) (rbits s) /\
     RInv s' /\ rn s' < 8 /\ rdata s' = rdata s) /\
  (forall s n,
     RInv s -> rn s < 8 -> n <= N.of_nat (length (rbits s)) ->
     n + rn (snd (read s n)) <= 64 ->
     fst (read s n) = val_of (firstn (N.to_nat n) (rbits s))) /\
  (forall s n,
     RInv s -> rn s < 8 -> n <= 57 -> n <= N.of_nat (length (rbits s)) ->
     let '(v, s') := read s n in
     v = val_of (firstn (N.to_nat n) (rbits s)) /\
     rbits s' = skipn (N.to_nat n) (rbits s) /\
     RInv s' /\ rn s' < 8 /\ rdata s' = rdata s) /\
  (forall s n,
     RInv s -> rn s < 8 -> n <= 57 -> N.of_nat (length (rbits s)) < n ->
     fst (read s n) = 0 /\ rerr (snd (read s n)) = true).
Proof. exact (conj read_any (conj read_exact_fit (conj read_spec57 read_fail57))). Qed.
Print Assumptions C13_read_widths.

(* the bounds are tight.  pending + n = 65: 7 one bits, then Write(1, 58) - the first pending bit is lost; 64 bits at
   a byte boundary are fine; Read(58) with 1 bit pending returns 57 one bits instead of 58 *)
Theorem C13_width_bounds_refuted :
  (let ops := [WBits 127 7; WBits 1 58] in
   fst (run_reader (map rop_of ops) (rinit (wout (run_writer (ops ++ [WTrail]))))) = [VN 63; VN 1]) /\
  (let ops := [WBits 255 8; WBits 18446744073709551615 64] in
   fst (run_reader [RBits 8; RBits 32; RBits 32] (rinit (wout (run_writer (ops ++ [WTrail])))))
   = [VN 255; VN 4294967295; VN 4294967295]) /\
  (let s1 := snd (read (rinit (repeat 255 10)) 7) in
   fst (read s1 58) = 2 ^ 57 - 1 /\ rerr (snd (read s1 58)) = false).
Proof. exact (conj write_spill_58 (conj write_64_aligned read_spill_58)). Qed.
Print Assumptions C13_width_bounds_refuted.

(* ---- Exp-Golomb over the whole range of the code ---- *)
(* the repaired WriteExpGolomb: every value is either coded exactly (<= 2^57 - 2) or refused, error set, nothing
   written, pending bits untouched *)
Theorem C13_ue_total : forall s cur v,
  XStream s cur ->
  (v <= max_ue -> XStream (write_ue_x s v) (cur ++ ue_code v)) /\
  (max_ue < v -> write_ue_x s v = mkWX (xs s) true (xrem s)).
Proof. exact write_ue_x_total. Qed.
Print Assumptions C13_ue_total.

(* the reader decodes every unsigned code up to 2^58 - 2, and the signed mapping of it, at any alignment *)
Theorem C13_read_golomb57 :
  (forall s v rest,
     RGood s -> v + 1 < 2 ^ 58 -> rbits s = ue_code' v ++ rest ->
     exists s', read_ue s = (v, s') /\ rbits s' = rest /\ RGood s' /\ rdata s' = rdata s) /\
  (forall s k rest,
     RGood s -> se_to_ue k + 1 < 2 ^ 58 -> rbits s = ue_code' (se_to_ue k) ++ rest ->
     exists s', read_se s = (k, s') /\ rbits s' = rest /\ RGood s' /\ rdata s' = rdata s).
Proof. exact (conj read_ue_spec57 read_se_spec57). Qed.
Print Assumptions C13_read_golomb57.

(* the bound is tight: without the range check (C13Model.write_ue = the code before repo commit 9ec0951) the value
   2^57 - 1 written after 7 pending bits corrupts the value written before it *)
Theorem C13_ue_bound_refuted :
  let ops := [WBits 127 7; WUe (max_ue + 1)] in
  value_op57 (WUe (max_ue + 1)) = false /\
  fst (run_reader (map rop_of ops) (rinit (wout (run_writer (ops ++ [WTrail])))))
  = [VN 63; VN (max_ue + 1)].
Proof. exact ue_bound_tight. Qed.
Print Assumptions C13_ue_bound_refuted.

(* WriteExpGolomb's prefix loop in wrapping uint arithmetic: the model's loop (computed in N) is the uint loop for
   every value below the maximal uint, and for the maximal uint the loop does not return (finding C13-F2; the repaired
   code no longer enters it) *)
Theorem C13_ue_loop_uint :
  (forall nr, nr < M64 -> ue_loop64 64 nr 0 0 0 = Some (ue_loop 64 nr 0 0 0)) /\
  (forall fuel, N.of_nat fuel < 18446744073709551616 -> ue_loop64 fuel M64 0 0 0 = None).
Proof. exact (conj ue_loop64_agrees ue_loop64_diverges). Qed.
Print Assumptions C13_ue_loop_uint.

(* ReadSignedGolomb at the integer boundaries: equal to the standard mapping unless codeNum = 2^64 - 1, where the
   uint addition wraps and Go returns 0 (stream: 64 zero bits, a one, 64 zero bits); whatever the stream, the
   conversions to int do not overflow *)
Theorem C13_se_int_boundaries :
  (forall s, fst (read_ue s) < 18446744073709551615 -> read_se64 s = read_se s) /\
  (fst (read_ue (rinit se_boundary_stream)) = 18446744073709551615 /\
   fst (read_se64 (rinit se_boundary_stream)) = 0%Z /\
   rerr (snd (read_se64 (rinit se_boundary_stream))) = false) /\
  (forall s, (- 9223372036854775807 <= fst (read_se64 s) <= 9223372036854775807)%Z).
Proof. exact (conj read_se64_eq (conj se_boundary read_se64_fits_int)). Qed.
Print Assumptions C13_se_int_boundaries.

(* Reader.ReadSigned: the 64-bit int arithmetic is two's complement for every width 1..64, stays in range, and a
   signed value in range masked to n bits by Write comes back through it *)
Theorem C13_read_signed_twos :
  (forall v n, 1 <= n <= 64 -> v < 2 ^ n ->
     sext64 v n = (if N.testbit v (n - 1) then (Z.of_N v - 2 ^ Z.of_N n)%Z else Z.of_N v) /\
     (- 2 ^ (Z.of_N n - 1) <= sext64 v n < 2 ^ (Z.of_N n - 1))%Z) /\
  (forall z n, 1 <= n <= 64 ->
     (- 2 ^ (Z.of_N n - 1) <= z < 2 ^ (Z.of_N n - 1))%Z ->
     sext64 (Z.to_N (z mod 2 ^ Z.of_N n)) n = z).
Proof.
  exact (conj (fun v n Hn Hv => conj (sext64_spec v n Hn Hv) (sext64_range v n Hn Hv)) sext64_twos).
Qed.
Print Assumptions C13_read_signed_twos.

Example ex_signed : sext64 (Z.to_N ((-3) mod 2 ^ 5)) 5 = (-3)%Z /\ sext64 18446744073709551615 64 = (-1)%Z.
Proof. vm_compute. split; reflexivity. Qed.

(* ---- the round trip over the exact domain, through the repaired writer ---- *)
(* any sequence of fixed-width (<= 57 bits, value fits), flag, ue (<= 2^57 - 2) and se values: no error, and the
   matching reads return the values *)
Theorem C13_roundtrip_exact : forall ops,
  forallb value_op57 ops = true ->
  let w := run_wx None (ops ++ [WTrail]) in
  xerr w = false /\
  exists s', run_reader (map rop_of ops) (rinit (xout w)) = (map rval_of ops, s') /\ rerr s' = false.
Proof. exact roundtrip_exact. Qed.
Print Assumptions C13_roundtrip_exact.

Theorem C13_writer_is_escape57 : forall ops,
  forallb op_ok57 ops = true ->
  exists raw, wout (run_writer ops) = escape raw /\
              bytes_to_bits raw ++ pending (run_writer ops) = all_bits ops /\
              (length (pending (run_writer ops)) < 8)%nat /\
              Forall (fun b => b < 256) raw.
Proof. exact writer_is_escape57. Qed.
Print Assumptions C13_writer_is_escape57.

Example ex_value_ops57 :
  forallb value_op57 [WBits 144115188075855871 57; WFlag true; WUe max_ue; WSe (-72057594037927935); WBits 5 3] = true.
Proof. vm_compute. reflexivity. Qed.

(* ---- EBSPWriter / Writer over an io.Writer that fails after k bytes ---- *)
(* the bytes delivered are the first k bytes of the fault-free output; AccError is set exactly when the output was
   cut (or the fault-free run itself refused a value); first for EBSPWriter, then for Writer with Flush *)
Theorem C13_failing_writer_prefix :
  (forall ops k,
     xout (run_wx (Some k) ops) = firstn (N.to_nat k) (xout (run_wx None ops)) /\
     xerr (run_wx (Some k) ops) = xerr (run_wx None ops) || (k <? lenN (xout (run_wx None ops)))) /\
  (forall ops k,
     xout (run_wx_plain (Some k) ops) = firstn (N.to_nat k) (xout (run_wx_plain None ops)) /\
     xerr (run_wx_plain (Some k) ops)
     = xerr (run_wx_plain None ops) || (k <? lenN (xout (run_wx_plain None ops)))).
Proof. exact (conj failing_writer_prefix failing_plain_writer_prefix). Qed.
Print Assumptions C13_failing_writer_prefix.

(* without a failure and with accepted values the error-aware model is the writer of C13Model (every theorem about
   run_writer is a theorem about the code over a working io.Writer); once the error is set every later call is a
   no-op on the whole state *)
Theorem C13_writer_error_state :
  (forall ops, forallb ue_ok ops = true -> run_wx None ops = mkWX (run_writer ops) false None) /\
  (forall s o, xerr s = true -> wxstep s o = s).
Proof. exact (conj run_wx_is_run_writer wxstep_after_error). Qed.
Print Assumptions C13_writer_error_state.

Example ex_failing_writer :
  xout (run_wx (Some 3) [WBits 0 16; WBits 1 8; WUe 7; WTrail]) = [0; 0; 3] /\
  xerr (run_wx (Some 3) [WBits 0 16; WBits 1 8; WUe 7; WTrail]) = true /\
  xout (run_wx None [WBits 0 16; WBits 1 8; WUe 7; WTrail]) = [0; 0; 3; 1; 17].
Proof. vm_compute. repeat split. Qed.

(* ---- reads after the first error (EOF) ---- *)
(* sticky: every read of EBSPReader / Reader returns the zero value and leaves error, accumulator and counters as
   they are *)
Theorem C13_reader_eof_sticky : forall s, rerr s = true ->
  (forall o, rstep s o = (rzero o, s)) /\
  (forall ops, run_reader ops s = (map rzero ops, s)) /\
  read_trailing s = Some (TNil, s) /\
  read_se64 s = (0%Z, s) /\
  (forall n, read_plain s n = (0, s)) /\
  read_flag_plain s = (false, s) /\
  (forall n, n <> 0 -> read_signed64 s n = Some (0%Z, s)).
Proof.
  intros s H.
  exact (conj (fun o => rstep_after_error s o H)
        (conj (fun ops => sticky_run ops s H)
        (conj (read_trailing_after_error s H)
        (conj (read_se64_after_error s H)
        (conj (fun n => read_gen_after_error false s n H)
        (conj (read_flag_plain_after_error s H)
              (fun n Hn => read_signed64_after_error s n H Hn))))))).
Qed.
Print Assumptions C13_reader_eof_sticky.

(* the read that fails returns 0 and has consumed every byte of the input: NrBytesRead = len(data) from then on
   (both readers, any width) *)
Theorem C13_read_eof_position : forall esc s n,
  rerr s = false -> rpos s <= N.of_nat (length (rdata s)) ->
  rerr (snd (read_gen esc s n)) = true ->
  fst (read_gen esc s n) = 0 /\ nr_bytes_read (snd (read_gen esc s n)) = N.of_nat (length (rdata s))
  /\ rdata (snd (read_gen esc s n)) = rdata s.
Proof. exact read_eof_position. Qed.
Print Assumptions C13_read_eof_position.

Example ex_eof_sticky :
  let s := snd (read (rinit [1; 2]) 24) in
  rerr s = true /\ nr_bytes_read s = 2 /\ fst (run_reader [RBits 8; RUe; RSe; RFlag; RMore] s)
  = [VN 0; VN 0; VZ 0; VB false; VMore None].
Proof. vm_compute. repeat split. Qed.

(* ---- bits.Reader: Read(n) for every width and ReadSigned in terms of the stream ---- *)
(* (1) Reader.Read(n) returns the true n-bit value modulo 2^(64 - k), k = bits left pending; position always right;
   (2) Reader.ReadSigned(n), 1 <= n, n + k <= 64 (every n <= 57): the next n bits as a two's-complement number *)
Theorem C13_plain_read_widths :
  (forall s n,
     RInv s -> rn s < 8 -> n <= N.of_nat (length (pbits s)) ->
     let '(v, s') := read_plain s n in
     v = val_of (firstn (N.to_nat n) (pbits s)) mod 2 ^ (64 - rn s') /\
     pbits s' = skipn (N.to_nat n) (pbits s) /\
     RInv s' /\ rn s' < 8 /\ rdata s' = rdata s) /\
  (forall s n,
     RInv s -> rn s < 8 -> 1 <= n -> n <= N.of_nat (length (pbits s)) ->
     n + rn (snd (read_plain s n)) <= 64 ->
     exists s', read_signed64 s n = Some (sval_of (firstn (N.to_nat n) (pbits s)), s') /\
                pbits s' = skipn (N.to_nat n) (pbits s) /\ RInv s' /\ rn s' < 8).
Proof. exact (conj read_any_plain read_signed_stream). Qed.
Print Assumptions C13_plain_read_widths.

Example ex_sval : sval_of [true; false; true] = (-3)%Z /\ sval_of [false; true; true] = 3%Z
  /\ read_signed64 (rinit [160]) 3 = Some ((-3)%Z, mkR 5 0 1 0 false [160]).
Proof. vm_compute. repeat split. Qed.

(* ================================================================== Reader.ReadRemainingBytes, FixedSliceWriter.WriteString *)
(* (models: C13ModelTail.v - the two methods of the anchored files that were not modelled before) *)

(* ---- Reader.ReadRemainingBytes ---- *)
(* (1) on any error-free reader state: with no bits pending it returns exactly the bytes not yet read (tail: the bytes whose
       bits are the whole unread stream), sets no error, does not move the byte counter and leaves the reader drained;
       with 1..7 bits pending it returns nil and sets the error, counters untouched;
   (2) nil and no change at all once an error is set;
   (3) every read of at least one bit from a drained reader fails at once: 0, error set, byte counter where it was *)
Theorem C13_read_remaining_bytes :
  (forall s, RGood s ->
     if rn s =? 0 then
       exists tail s', read_remaining s = (Some tail, s') /\
         pbits s = bytes_to_bits tail /\ Forall lt256 tail /\
         RGood s' /\ Drained s' /\ pbits s' = [] /\ rpos s' = rpos s
     else
       exists s', read_remaining s = (None, s') /\ rerr s' = true /\ rpos s' = rpos s /\ rn s' = rn s) /\
  (forall s, rerr s = true -> read_remaining s = (None, s)) /\
  (forall s n, Drained s -> 1 <= n ->
     exists s', read_plain s n = (0, s') /\ rerr s' = true /\ rpos s' = rpos s /\ rn s' = 0).
Proof. exact (conj read_remaining_spec (conj read_remaining_sticky read_plain_drained)). Qed.
Print Assumptions C13_read_remaining_bytes.

(* values (widths 1..32 that fit, flags) written with Writer / FixedSliceWriter.WriteBits, Flush, then ANY bytes behind them:
   the values are read back, and ReadRemainingBytes then returns exactly those bytes (reader drained, no error, byte counter
   at the first of them) when the values fill whole bytes; otherwise (padding bits pending) nil with the error set *)
Theorem C13_remaining_roundtrip : forall ops tail,
  forallb plain_op ops = true -> Forall lt256 tail ->
  let head := wout (flush_plain (run_writer_plain ops)) in
  exists s1, plain_reads ops [] (rinit (head ++ tail)) = (plain_vals ops, s1) /\ rerr s1 = false /\
    if (N.of_nat (length (concat (map pvbits ops))) mod 8 =? 0)
    then exists s2, read_remaining s1 = (Some tail, s2) /\ Drained s2 /\ rpos s2 = N.of_nat (length head)
    else exists s2, read_remaining s1 = (None, s2) /\ rerr s2 = true.
Proof. exact remaining_roundtrip. Qed.
Print Assumptions C13_remaining_roundtrip.

Example ex_remaining_ops : list wop := [WBits 5 3; WFlag true; WBits 9 4; WBits 258 16].
Example ex_remaining :
  forallb plain_op ex_remaining_ops = true /\
  (let s1 := snd (plain_reads ex_remaining_ops [] (rinit (wout (flush_plain (run_writer_plain ex_remaining_ops)) ++ [0; 0; 3; 255]))) in
   fst (read_remaining s1) = Some [0; 0; 3; 255] /\ rerr (snd (read_remaining s1)) = false /\ nr_bytes_read (snd (read_remaining s1)) = 3 /\
   fst (read_plain (snd (read_remaining s1)) 1) = 0 /\ rerr (snd (read_plain (snd (read_remaining s1)) 1)) = true) /\
  (let s1 := snd (plain_reads [WBits 5 3] [] (rinit (wout (flush_plain (run_writer_plain [WBits 5 3])) ++ [7]))) in
   fst (read_remaining s1) = None /\ rerr (snd (read_remaining s1)) = true).
Proof. vm_compute. repeat split. Qed.

(* ---- FixedSliceWriter.WriteString ---- *)
(* (1) WriteString(s, z) IS WriteBytes of the bytes of s followed by the terminator when z (one capacity check for both);
   (2) so any op sequence with WriteString among the ops is an op sequence of the model there was (every C13_fsw_* theorem applies);
   (3) all or nothing: string and terminator appended and the error left as it was, or nothing written and the error set;
       the pending bits are not touched;
   (4) never beyond the capacity *)
Theorem C13_fsw_write_string :
  (forall s l z, fput_string s l z = fput s (str_bytes l z)) /\
  (forall cap ops, run_fsw2 cap ops = run_fsw cap (map lower_fop2 ops)) /\
  (forall s l z,
     (if fcap s <? foff s + N.of_nat (length (str_bytes l z))
      then fbytes (fput_string s l z) = fbytes s /\ ferr (fput_string s l z) = true
      else fbytes (fput_string s l z) = fbytes s ++ str_bytes l z /\ ferr (fput_string s l z) = ferr s) /\
     fn (fput_string s l z) = fn s /\ fv (fput_string s l z) = fv s /\ fcap (fput_string s l z) = fcap s) /\
  (forall cap ops, foff (run_fsw2 cap ops) <= cap).
Proof.
  exact (conj fput_string_is_fput (conj run_fsw2_lower
          (conj (fun s l z => conj (fput_string_cases s l z) (fput_string_bits s l z)) run_fsw2_within_capacity))).
Qed.
Print Assumptions C13_fsw_write_string.

Example ex_write_string :
  let ops := [FStr [97; 98] true; F1 (FU 2 258); FStr [99; 100; 101] true; FStr [102] false] in
  fbytes (run_fsw2 16 ops) = [97; 98; 0; 1; 2; 99; 100; 101; 0; 102] /\ ferr (run_fsw2 16 ops) = false /\
  fbytes (run_fsw2 8 ops) = [97; 98; 0; 1; 2; 102] /\ ferr (run_fsw2 8 ops) = true.
Proof. vm_compute. repeat split. Qed.

(* ---- ReadExpGolomb / ReadSignedGolomb on a code with ANY number of leading zero bits (malformed streams included) ---- *)
(* (1) q zero bits, a one and at least q more bits, at any alignment, q unbounded: ReadExpGolomb returns
         ((2^q - 1) mod 2^64 + suffix mod 2^(64 - k)) mod 2^64,   k = bits left pending after the suffix (0..7),
       no error, having consumed exactly the 2q + 1 bits of the code (for q <= 57 no modulus bites: C13_read_golomb57);
   (2) the first term is 2^q - 1 below 64 and all ones from 64 on (Go's `1 << q` is 0 there);
   (3) ReadSignedGolomb is the code's mapping of that value, its `+ 1` wrapping at 2^64 *)
Theorem C13_read_golomb_any :
  (forall s q rest,
     RGood s -> rbits s = repeat false q ++ true :: rest -> (q <= length rest)%nat ->
     exists s', read_ue s = (u64 (u64 (2 ^ N.of_nat q - 1) + val_of (firstn q rest) mod 2 ^ (64 - rn s')), s') /\
                rbits s' = skipn q rest /\ RGood s' /\ rdata s' = rdata s) /\
  (forall q, (q < 64 -> u64 (2 ^ q - 1) = 2 ^ q - 1) /\ (64 <= q -> u64 (2 ^ q - 1) = 18446744073709551615)) /\
  (forall s q rest,
     RGood s -> rbits s = repeat false q ++ true :: rest -> (q <= length rest)%nat ->
     exists s', let u := u64 (u64 (2 ^ N.of_nat q - 1) + val_of (firstn q rest) mod 2 ^ (64 - rn s')) in
                read_se64 s = (if u mod 2 =? 1 then Z.of_N (u64 (u + 1) / 2) else (- Z.of_N (u / 2))%Z, s') /\
                rbits s' = skipn q rest /\ RGood s' /\ rdata s' = rdata s).
Proof. exact (conj read_ue_any (conj ue_base_cases read_se64_any)). Qed.
Print Assumptions C13_read_golomb_any.

(* 60 zero bits, a one, 60 one bits: 7 bits stay pending, so the suffix loses its top 3 bits (2^60 - 1 + 2^57 - 1, the
   standard's codeNum would be 2^61 - 2); 64 zero bits, a one, 64 zero bits: all ones, signed 0 *)
Example ex_golomb_any :
  let s := rinit ([0; 0; 0; 0; 0; 0; 0; 15] ++ repeat 255 8) in
  rbits s = repeat false 60 ++ true :: repeat true 67 /\
  fst (read_ue s) = 1297036692682702846 /\ rn (snd (read_ue s)) = 7 /\ rerr (snd (read_ue s)) = false /\
  fst (read_ue (rinit (repeat 0 8 ++ [128] ++ repeat 0 8))) = 18446744073709551615 /\
  fst (read_se64 (rinit (repeat 0 8 ++ [128] ++ repeat 0 8))) = 0%Z.
Proof. vm_compute. repeat split. Qed.
