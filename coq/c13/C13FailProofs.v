(* C13FailProofs.v — EBSPWriter / Writer over an io.Writer that fails after k one-byte writes:
   the bytes delivered are exactly the first k bytes of the fault-free output (all of it when it is not longer),
   the accumulated error reports the cut exactly, and without a failure the model is C13Model's writer. *)
From V.lib Require Import Base.
From V.c13 Require Import C13Spec C13Model C13ModelExt.

Definition lenN {A} (l : list A) : N := N.of_nat (length l).

Lemma lenN_app {A} (a b : list A) : lenN (a ++ b) = lenN a + lenN b.
Proof. unfold lenN. rewrite app_length. lia. Qed.

Lemma lenN_nonempty {A} (e : list A) : e <> [] -> 0 < lenN e.
Proof. destruct e; [congruence|]. unfold lenN. cbn [length]. lia. Qed.

(* ------------------------------------------------------------------ a sink that never fails = C13Model *)
Lemma emit_byte_x_none esc b z out :
  emit_byte_x esc b z out None = (true, fst (emit_byte esc b z out), snd (emit_byte esc b z out), None).
Proof.
  unfold emit_byte_x, emit_byte, room, take.
  destruct (esc && (z =? 2) && (b <=? 3)); cbn [fst snd]; destruct (b =? 0); reflexivity.
Qed.

Lemma drain_x_none esc fuel : forall V T z out,
  drain_x esc fuel V T z out None =
  let '(T', z', o') := drain esc fuel V T z out in (true, T', z', o', None).
Proof.
  induction fuel as [|f IH]; intros V T z out; cbn [drain_x drain]; [reflexivity|].
  destruct (8 <=? T); [|reflexivity].
  rewrite emit_byte_x_none.
  destruct (emit_byte esc (N.land (N.shiftr V (T - 8)) 255) z out) as [z1 o1]. cbn [fst snd].
  apply IH.
Qed.

Lemma write_x_none esc s v n :
  write_x esc (mkWX s false None) v n = mkWX (write_gen esc s v n) false None.
Proof.
  unfold write_x, write_gen. cbn [xerr xs xrem]. rewrite drain_x_none.
  destruct (drain esc _ _ _ _ _) as [[T' z'] o']. reflexivity.
Qed.

(* ops that the repaired WriteExpGolomb accepts *)
Definition ue_ok (o : wop) : bool :=
  match o with
  | WUe v => v <=? max_ue
  | WSe k => se_to_ue k <=? max_ue
  | WFlush => false
  | _ => true
  end.

Lemma write_ue_x_none s v : v <= max_ue -> write_ue_x (mkWX s false None) v = mkWX (write_ue s v) false None.
Proof.
  intros Hv. unfold write_ue_x, write_ue.
  destruct (N.ltb_spec max_ue v) as [H|_]; [lia|].
  destruct (ue_loop 64 v 0 0 0) as [p delta].
  unfold write. rewrite write_x_none. destruct (0 <? p); [apply write_x_none|reflexivity].
Qed.

Lemma write_sei_x_none fuel : forall s v,
  write_sei_value_x_fuel fuel (mkWX s false None) v = mkWX (write_sei_value_fuel fuel s v) false None.
Proof.
  induction fuel as [|f IH]; intros s v; cbn [write_sei_value_x_fuel write_sei_value_fuel]; [reflexivity|].
  unfold write. destruct (255 <=? v); rewrite write_x_none; [apply IH|reflexivity].
Qed.

Lemma stuff_zeros_x_none s : stuff_zeros_x (mkWX s false None) = mkWX (stuff_zeros s) false None.
Proof.
  unfold stuff_zeros_x, stuff_zeros. cbn [xs]. destruct (0 <? wn s); [apply write_x_none|reflexivity].
Qed.

Lemma wxstep_none s o : ue_ok o = true -> wxstep (mkWX s false None) o = mkWX (wstep s o) false None.
Proof.
  intros Hok. destruct o as [v w|b|v|k|v| | |]; cbn [wxstep wstep ue_ok] in *.
  - apply write_x_none.
  - apply write_x_none.
  - apply write_ue_x_none. apply N.leb_le. exact Hok.
  - unfold write_se. apply write_ue_x_none. apply N.leb_le. exact Hok.
  - unfold write_sei_value_x, write_sei_value. apply write_sei_x_none.
  - unfold write_trailing_x, write_trailing, write. rewrite write_x_none. apply stuff_zeros_x_none.
  - apply stuff_zeros_x_none.
  - discriminate.
Qed.

Lemma run_wx_none ops : forall s,
  forallb ue_ok ops = true ->
  fold_left wxstep ops (mkWX s false None) = mkWX (fold_left wstep ops s) false None.
Proof.
  induction ops as [|o t IH]; intros s H; cbn [fold_left]; [reflexivity|].
  cbn [forallb] in H. apply andb_true_iff in H. destruct H as [Ho Ht].
  rewrite (wxstep_none s o Ho). apply IH. exact Ht.
Qed.

Lemma run_wx_is_run_writer ops :
  forallb ue_ok ops = true -> run_wx None ops = mkWX (run_writer ops) false None.
Proof. intros H. unfold run_wx, run_writer, xinit. apply run_wx_none. exact H. Qed.

(* ------------------------------------------------------------------ budget k against no budget *)
Lemma emit_sim esc b z out r :
  let '(oka, za, oa, ra) := emit_byte_x esc b z out None in
  let '(okb, zb, ob, rb) := emit_byte_x esc b z out (Some r) in
  oka = true /\ ra = None /\ (exists e, e <> [] /\ oa = e ++ out) /\
  ( (okb = true /\ zb = za /\ ob = oa /\ exists r', rb = Some r' /\ r' + lenN oa = r + lenN out)
    \/ (okb = false /\ lenN ob = r + lenN out /\ exists e2, e2 <> [] /\ oa = e2 ++ ob) ).
Proof.
  unfold emit_byte_x, room, take.
  destruct (esc && (z =? 2) && (b <=? 3)).
  - destruct (N.ltb_spec 0 r) as [Hr|Hr]; [destruct (N.ltb_spec 0 (r - 1)) as [Hr1|Hr1]|]; cbv beta iota zeta;
      (split; [reflexivity|]); (split; [reflexivity|]);
      (split; [exists [b; 3]; split; [discriminate|reflexivity]|]).
    + left. repeat split. exists (r - 1 - 1). split; [reflexivity|]. unfold lenN. cbn [length]. lia.
    + right. split; [reflexivity|]. split; [unfold lenN; cbn [length]; lia|].
      exists [b]. split; [discriminate|reflexivity].
    + right. split; [reflexivity|]. split; [lia|]. exists [b; 3]. split; [discriminate|reflexivity].
  - destruct (N.ltb_spec 0 r) as [Hr|Hr]; cbv beta iota zeta;
      (split; [reflexivity|]); (split; [reflexivity|]);
      (split; [exists [b]; split; [discriminate|reflexivity]|]).
    + left. repeat split. exists (r - 1). split; [reflexivity|]. unfold lenN. cbn [length]. lia.
    + right. split; [reflexivity|]. split; [lia|]. exists [b]. split; [discriminate|reflexivity].
Qed.

Lemma drain_sim esc fuel : forall V T z out r,
  let '(oka, Ta, za, oa, ra) := drain_x esc fuel V T z out None in
  let '(okb, Tb, zb, ob, rb) := drain_x esc fuel V T z out (Some r) in
  oka = true /\ ra = None /\ (exists e, oa = e ++ out) /\
  ( (okb = true /\ Tb = Ta /\ zb = za /\ ob = oa /\ exists r', rb = Some r' /\ r' + lenN oa = r + lenN out)
    \/ (okb = false /\ lenN ob = r + lenN out /\ exists e2, e2 <> [] /\ oa = e2 ++ ob) ).
Proof.
  induction fuel as [|f IH]; intros V T z out r; cbn [drain_x].
  - split; [reflexivity|]. split; [reflexivity|]. split; [exists []; reflexivity|].
    left. repeat split. exists r. split; reflexivity.
  - destruct (8 <=? T).
    2:{ split; [reflexivity|]. split; [reflexivity|]. split; [exists []; reflexivity|].
        left. repeat split. exists r. split; reflexivity. }
    set (b := N.land (N.shiftr V (T - 8)) 255).
    pose proof (emit_sim esc b z out r) as H.
    destruct (emit_byte_x esc b z out None) as [[[oka1 za1] oa1] ra1].
    destruct (emit_byte_x esc b z out (Some r)) as [[[okb1 zb1] ob1] rb1].
    destruct H as [-> [-> [[e [He ->]] [[-> [-> [-> [r' [-> Hr]]]]]|[-> [Hl [e2 [He2 Hoa]]]]]]]].
    + specialize (IH V (T - 8) za1 (e ++ out) r').
      destruct (drain_x esc f V (T - 8) za1 (e ++ out) None) as [[[[oka Ta] za] oa] ra].
      destruct (drain_x esc f V (T - 8) za1 (e ++ out) (Some r')) as [[[[okb Tb] zb] ob] rb].
      destruct IH as [-> [-> [[e' ->] Hc]]].
      split; [reflexivity|]. split; [reflexivity|].
      split; [exists (e' ++ e); rewrite app_assoc; reflexivity|].
      destruct Hc as [[-> [-> [-> [-> [r'' [-> Hr']]]]]]|[-> [Hl' [e2 [He2 Hoa]]]]].
      * left. repeat split. exists r''. split; [reflexivity|]. lia.
      * right. split; [reflexivity|]. split; [lia|]. exists e2. split; assumption.
    + specialize (IH V (T - 8) za1 (e ++ out) 0).
      destruct (drain_x esc f V (T - 8) za1 (e ++ out) None) as [[[[oka Ta] za] oa] ra].
      destruct (drain_x esc f V (T - 8) za1 (e ++ out) (Some 0)) as [[[[okb Tb] zb] ob] rb].
      destruct IH as [-> [-> [[e' ->] _]]].
      split; [reflexivity|]. split; [reflexivity|].
      split; [exists (e' ++ e); rewrite app_assoc; reflexivity|].
      right. split; [reflexivity|]. split; [exact Hl|].
      exists (e' ++ e2). split; [destruct e'; [exact He2|discriminate]|].
      rewrite Hoa, app_assoc. reflexivity.
Qed.

(* a = the run over a sink that never fails, b = the run over a sink that accepts k bytes *)
Definition Sim (k : N) (a b : wx) : Prop :=
  xrem a = None /\
  ( (xerr b = false /\ xerr a = false /\ xs b = xs a /\
     exists r, xrem b = Some r /\ r + lenN (wrev (xs a)) = k)
  \/ (xerr b = true /\ xerr a = true /\ wrev (xs b) = wrev (xs a) /\ lenN (wrev (xs a)) <= k)
  \/ (xerr b = true /\ lenN (wrev (xs b)) = k /\ exists e, e <> [] /\ wrev (xs a) = e ++ wrev (xs b)) ).

Lemma Sim_init k : Sim k (xinit None) (xinit (Some k)).
Proof.
  split; [reflexivity|]. left. repeat split. exists k. split; [reflexivity|]. unfold lenN. cbn. lia.
Qed.

(* the fault-free run only appends and never gets an I/O error *)
Lemma write_x_grows esc a v n :
  xrem a = None ->
  xrem (write_x esc a v n) = None /\ xerr (write_x esc a v n) = xerr a /\
  exists e, wrev (xs (write_x esc a v n)) = e ++ wrev (xs a).
Proof.
  intros Ha. unfold write_x. destruct (xerr a) eqn:Ee.
  - rewrite Ee. split; [exact Ha|]. split; [reflexivity|]. exists []. reflexivity.
  - rewrite Ha.
    match goal with |- context [drain_x esc ?fu ?V ?T ?z ?o None] =>
      pose proof (drain_sim esc fu V T z o 0) as H;
      destruct (drain_x esc fu V T z o None) as [[[[oka Ta] za] oa] ra];
      destruct (drain_x esc fu V T z o (Some 0)) as [[[[okb Tb] zb] ob] rb] end.
    destruct H as [-> [-> [[e ->] _]]]. cbn [xrem xerr xs wrev].
    split; [reflexivity|]. split; [reflexivity|]. exists e. reflexivity.
Qed.

Lemma write_x_after_error esc b v n : xerr b = true -> write_x esc b v n = b.
Proof. intros H. unfold write_x. rewrite H. reflexivity. Qed.

Lemma Sim_b_err k a b a' :
  Sim k a b -> xerr b = true ->
  xrem a' = None -> (xerr a = true -> a' = a) -> (exists e, wrev (xs a') = e ++ wrev (xs a)) ->
  Sim k a' b.
Proof.
  intros [Ha [[Hb _]|[[Hb [Hae [Hw Hl]]]|[Hb [Hl [e [He Hw]]]]]]] Hbe Ha' Hsame [e' He'].
  - congruence.
  - rewrite (Hsame Hae). split; [exact Ha|]. right. left. repeat split; assumption.
  - split; [exact Ha'|]. right. right. split; [exact Hb|]. split; [exact Hl|].
    exists (e' ++ e). split; [destruct e'; [exact He|discriminate]|].
    rewrite He', Hw, app_assoc. reflexivity.
Qed.

Lemma write_x_sim esc k a b v n v' n' :
  Sim k a b -> (xerr b = false -> v' = v /\ n' = n) ->
  Sim k (write_x esc a v n) (write_x esc b v' n').
Proof.
  intros HS Hargs. destruct (xerr b) eqn:Hbe.
  - rewrite (write_x_after_error esc b v' n' Hbe).
    destruct (write_x_grows esc a v n (proj1 HS)) as [H1 [H2 H3]].
    apply (Sim_b_err k a b _ HS Hbe H1); [|exact H3].
    intros Hae. unfold write_x. rewrite Hae. reflexivity.
  - destruct (Hargs eq_refl) as [-> ->].
    destruct HS as [Ha [[_ [Hae [Hxs [r [Hr Hk]]]]]|[[Hb _]|[Hb _]]]]; try congruence.
    unfold write_x. rewrite Hbe, Hae, Hxs, Ha, Hr.
    match goal with |- context [drain_x esc ?fu ?V ?T ?z ?o None] =>
      pose proof (drain_sim esc fu V T z o r) as H;
      destruct (drain_x esc fu V T z o None) as [[[[oka Ta] za] oa] ra];
      destruct (drain_x esc fu V T z o (Some r)) as [[[[okb Tb] zb] ob] rb] end.
    destruct H as [-> [-> [[e ->] [[-> [-> [-> [-> [r' [-> Hr']]]]]]|[-> [Hl [e2 [He2 Hoa]]]]]]]].
    + split; [reflexivity|]. left. cbn [xerr xs xrem wrev]. repeat split.
      exists r'. split; [reflexivity|]. lia.
    + split; [reflexivity|]. right. right. cbn [xerr xs xrem wrev].
      split; [reflexivity|]. split; [lia|]. exists e2. split; assumption.
Qed.

Lemma Sim_xs k a b : Sim k a b -> xerr b = false -> xs b = xs a.
Proof. intros [_ [[_ [_ [H _]]]|[[H _]|[H _]]]] Hb; congruence. Qed.

Lemma write_ue_x_sim k a b v : Sim k a b -> Sim k (write_ue_x a v) (write_ue_x b v).
Proof.
  intros HS. unfold write_ue_x. destruct (max_ue <? v).
  - destruct HS as [Ha [[Hb [Hae [Hxs [r [Hr Hk]]]]]|[[Hb [Hae [Hw Hl]]]|[Hb [Hl [e [He Hw]]]]]]].
    + rewrite Hb, Hae. split; [exact Ha|]. right. left. cbn [xerr xs xrem]. rewrite Hxs.
      repeat split. lia.
    + rewrite Hb, Hae. split; [exact Ha|]. right. left. repeat split; assumption.
    + rewrite Hb. destruct (xerr a).
      * split; [exact Ha|]. right. right. split; [exact Hb|]. split; [exact Hl|]. exists e. split; assumption.
      * split; [exact Ha|]. right. right. cbn [xs]. split; [exact Hb|]. split; [exact Hl|]. exists e. split; assumption.
  - destruct (ue_loop 64 v 0 0 0) as [p delta].
    pose proof (write_x_sim true k a b 1 (p + 1) 1 (p + 1) HS ltac:(intros; split; reflexivity)) as H1.
    destruct (0 <? p); [|exact H1].
    apply write_x_sim; [exact H1|]. intros; split; reflexivity.
Qed.

Lemma write_sei_x_sim fuel : forall k a b v,
  Sim k a b -> Sim k (write_sei_value_x_fuel fuel a v) (write_sei_value_x_fuel fuel b v).
Proof.
  induction fuel as [|f IH]; intros k a b v HS; cbn [write_sei_value_x_fuel]; [exact HS|].
  destruct (255 <=? v).
  - apply IH. apply write_x_sim; [exact HS|]. intros; split; reflexivity.
  - apply write_x_sim; [exact HS|]. intros; split; reflexivity.
Qed.

Lemma stuff_zeros_x_sim k a b : Sim k a b -> Sim k (stuff_zeros_x a) (stuff_zeros_x b).
Proof.
  intros HS. unfold stuff_zeros_x. destruct (xerr b) eqn:Hbe.
  - assert (Hb' : (if 0 <? wn (xs b) then write_x true b 0 (8 - wn (xs b)) else b) = b).
    { destruct (0 <? wn (xs b)); [apply write_x_after_error; exact Hbe|reflexivity]. }
    rewrite Hb'. destruct (0 <? wn (xs a)); [|exact HS].
    rewrite <- (write_x_after_error true b 0 0 Hbe).
    apply write_x_sim; [exact HS|]. intros; congruence.
  - rewrite (Sim_xs k a b HS Hbe). destruct (0 <? wn (xs a)); [|exact HS].
    apply write_x_sim; [exact HS|]. intros; split; reflexivity.
Qed.

Lemma flush_x_sim k a b : Sim k a b -> Sim k (flush_x a) (flush_x b).
Proof.
  intros HS. unfold flush_x.
  destruct HS as [Ha [[Hb [Hae [Hxs [r [Hr Hk]]]]]|[[Hb [Hae [Hw Hl]]]|[Hb [Hl [e [He Hw]]]]]]].
  - rewrite Hb, Hae, Hxs, Ha, Hr. destruct (wn (xs a) =? 0).
    + split; [exact Ha|]. left. repeat split; try assumption. exists r. split; assumption.
    + unfold room, take. destruct (N.ltb_spec 0 r) as [Hpos|Hz].
      * split; [reflexivity|]. left. cbn [xerr xs xrem wrev]. repeat split.
        exists (r - 1). split; [reflexivity|]. unfold lenN in *. cbn [length]. lia.
      * split; [reflexivity|]. right. right. cbn [xerr xs xrem wrev].
        split; [reflexivity|]. split; [lia|].
        eexists [_]. split; [discriminate|]. reflexivity.
  - rewrite Hb, Hae. split; [exact Ha|]. right. left. repeat split; assumption.
  - rewrite Hb. destruct (xerr a) eqn:Hae.
    + split; [exact Ha|]. right. right. split; [exact Hb|]. split; [exact Hl|]. exists e. split; assumption.
    + rewrite Ha. destruct (wn (xs a) =? 0).
      * split; [exact Ha|]. right. right. split; [exact Hb|]. split; [exact Hl|]. exists e. split; assumption.
      * unfold room, take. split; [reflexivity|]. right. right. cbn [xerr xs xrem wrev].
        split; [exact Hb|]. split; [exact Hl|].
        eexists (_ :: e). split; [discriminate|]. rewrite Hw. reflexivity.
Qed.

Lemma wxstep_sim k a b o : Sim k a b -> Sim k (wxstep a o) (wxstep b o).
Proof.
  intros HS. destruct o as [v w|f|v|z|v| | |]; cbn [wxstep].
  - apply write_x_sim; [exact HS|]. intros; split; reflexivity.
  - apply write_x_sim; [exact HS|]. intros; split; reflexivity.
  - apply write_ue_x_sim. exact HS.
  - apply write_ue_x_sim. exact HS.
  - unfold write_sei_value_x. apply write_sei_x_sim. exact HS.
  - unfold write_trailing_x. apply stuff_zeros_x_sim.
    apply write_x_sim; [exact HS|]. intros; split; reflexivity.
  - apply stuff_zeros_x_sim. exact HS.
  - exact HS.
Qed.

Lemma wxstep_plain_sim k a b o : Sim k a b -> Sim k (wxstep_plain a o) (wxstep_plain b o).
Proof.
  intros HS. destruct o as [v w|f|v|z|v| | |]; cbn [wxstep_plain]; try exact HS.
  - apply write_x_sim; [exact HS|]. intros; split; reflexivity.
  - apply write_x_sim; [exact HS|]. intros; split; reflexivity.
  - apply flush_x_sim. exact HS.
Qed.

Lemma fold_sim (step : wx -> wop -> wx) k :
  (forall a b o, Sim k a b -> Sim k (step a o) (step b o)) ->
  forall ops a b, Sim k a b -> Sim k (fold_left step ops a) (fold_left step ops b).
Proof.
  intros Hstep. induction ops as [|o t IH]; intros a b HS; cbn [fold_left]; [exact HS|].
  apply IH. apply Hstep. exact HS.
Qed.

Lemma Sim_final k a b :
  Sim k a b ->
  xout b = firstn (N.to_nat k) (xout a) /\ xerr b = xerr a || (k <? lenN (xout a)).
Proof.
  unfold xout, wout, lenN. rewrite rev_length.
  intros [Ha [[Hb [Hae [Hxs [r [Hr Hk]]]]]|[[Hb [Hae [Hw Hl]]]|[Hb [Hl [e [He Hw]]]]]]].
  - rewrite Hxs, Hb, Hae. split.
    + symmetry. apply firstn_all2. rewrite rev_length. unfold lenN in Hk. lia.
    + destruct (N.ltb_spec k (N.of_nat (length (wrev (xs a))))) as [H|H]; [unfold lenN in Hk; lia|reflexivity].
  - rewrite Hw, Hb, Hae. split; [|reflexivity].
    symmetry. apply firstn_all2. rewrite rev_length. unfold lenN in Hl. lia.
  - rewrite Hb, Hw, rev_app_distr. split.
    + replace (N.to_nat k) with (length (rev (wrev (xs b)))) by (rewrite rev_length; unfold lenN in Hl; lia).
      rewrite firstn_app, Nat.sub_diag, firstn_O, app_nil_r, firstn_all. reflexivity.
    + rewrite app_length. pose proof (lenN_nonempty e He) as Hpos. unfold lenN in *.
      destruct (N.ltb_spec k (N.of_nat (length e + length (wrev (xs b))))) as [H|H]; [|lia].
      symmetry. apply orb_true_r.
Qed.

(* the theorem: EBSPWriter *)
Lemma failing_writer_prefix ops k :
  xout (run_wx (Some k) ops) = firstn (N.to_nat k) (xout (run_wx None ops)) /\
  xerr (run_wx (Some k) ops) = xerr (run_wx None ops) || (k <? lenN (xout (run_wx None ops))).
Proof.
  apply Sim_final. unfold run_wx. apply (fold_sim wxstep k (wxstep_sim k)). apply Sim_init.
Qed.

(* bits.Writer with Flush *)
Lemma failing_plain_writer_prefix ops k :
  xout (run_wx_plain (Some k) ops) = firstn (N.to_nat k) (xout (run_wx_plain None ops)) /\
  xerr (run_wx_plain (Some k) ops) = xerr (run_wx_plain None ops) || (k <? lenN (xout (run_wx_plain None ops))).
Proof.
  apply Sim_final. unfold run_wx_plain. apply (fold_sim wxstep_plain k (wxstep_plain_sim k)). apply Sim_init.
Qed.

(* the plain writer has no error of its own: the fault-free run never fails *)
Lemma plain_none_no_error ops : forall a,
  xrem a = None -> xerr a = false -> xerr (fold_left wxstep_plain ops a) = false.
Proof.
  induction ops as [|o t IH]; intros a Ha He; cbn [fold_left]; [exact He|].
  assert (H : xrem (wxstep_plain a o) = None /\ xerr (wxstep_plain a o) = false).
  { destruct o as [v w|f|v|z|v| | |]; cbn [wxstep_plain]; try (split; assumption).
    - destruct (write_x_grows false a v w Ha) as [H1 [H2 _]]. split; [exact H1|congruence].
    - destruct (write_x_grows false a (if f then 1 else 0) 1 Ha) as [H1 [H2 _]]. split; [exact H1|congruence].
    - unfold flush_x. rewrite He, Ha. destruct (wn (xs a) =? 0); [split; assumption|].
      cbn [room take xrem xerr]. split; reflexivity. }
  apply IH; apply H.
Qed.

(* once the error is set nothing is written any more and the state is frozen *)
Lemma write_ue_x_after_error s v : xerr s = true -> write_ue_x s v = s.
Proof.
  intros H. unfold write_ue_x. rewrite H. destruct (max_ue <? v); [reflexivity|].
  destruct (ue_loop 64 v 0 0 0) as [p d]. rewrite (write_x_after_error true s 1 (p + 1) H).
  destruct (0 <? p); [apply write_x_after_error; exact H|reflexivity].
Qed.

Lemma wxstep_after_error s o : xerr s = true -> wxstep s o = s.
Proof.
  intros H. destruct o as [v w|f|v|z|v| | |]; cbn [wxstep];
    try (apply write_x_after_error; exact H); try (apply write_ue_x_after_error; exact H); try reflexivity.
  - unfold write_sei_value_x. generalize (S (N.to_nat (v / 255))) as fuel. intros fuel. revert v.
    induction fuel as [|f IH]; intros v; cbn [write_sei_value_x_fuel]; [reflexivity|].
    rewrite !(write_x_after_error true s _ _ H). destruct (255 <=? v); [apply IH|reflexivity].
  - unfold write_trailing_x, stuff_zeros_x. rewrite (write_x_after_error true s 1 1 H).
    destruct (0 <? wn (xs s)); [apply write_x_after_error; exact H|reflexivity].
  - unfold stuff_zeros_x. destruct (0 <? wn (xs s)); [apply write_x_after_error; exact H|reflexivity].
Qed.
