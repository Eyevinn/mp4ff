From V.lib Require Import Base.
(* C13UeLoopProofs.v — WriteExpGolomb's prefix loop in uint arithmetic (C13ModelExt.ue_loop64, every + and << wrapping
   at 2^64): it is the loop of C13Model.ue_loop (computed in N) for every value but the maximal uint, for which it
   never returns (the repaired code does not enter the loop above 2^57 - 2). *)
From V.c13 Require Import C13Spec C13Model C13Bits C13EscProofs C13WriterProofs C13ModelExt.

Lemma u64_shift_big p : 64 <= p -> u64 (N.shiftl 1 p) = 0.
Proof.
  intros Hp. rewrite N.shiftl_1_l. unfold u64. change 18446744073709551616 with (2 ^ 64).
  replace p with ((p - 64) + 64) by lia. rewrite N.pow_add_r. apply N.mod_mul. cbn. lia.
Qed.

Lemma u64_shift_small p : p < 64 -> u64 (N.shiftl 1 p) = 2 ^ p.
Proof.
  intros Hp. rewrite N.shiftl_1_l. unfold u64. apply N.mod_small.
  change 18446744073709551616 with (2 ^ 64). apply N.pow_lt_mono_r; lia.
Qed.

(* the loop state after p iterations *)
Definition ue_state (p offset max : N) : Prop :=
  (p < 64 /\ offset = 2 ^ p - 1 /\ max = 2 ^ (p + 1) - 2) \/
  (64 <= p /\ offset = M64 /\ max = M64 - 1).

(* one more iteration: offset and max of the next state, wrapped; the last honest state is p = 63 *)
Lemma ue_state_next p offset max :
  ue_state p offset max ->
  ue_state (p + 1) (u64 (offset + u64 (N.shiftl 1 p)))
    (u64 (u64 (u64 (offset + u64 (N.shiftl 1 p)) + u64 (N.shiftl 1 (p + 1))) + 18446744073709551615)).
Proof.
  intros [[Hp [-> ->]]|[Hp [-> ->]]].
  - assert (Hpow : 2 ^ (p + 1) = 2 * 2 ^ p) by (rewrite N.add_1_r; apply N.pow_succ_r').
    assert (Hpos : 0 < 2 ^ p) by (apply pow2_pos).
    assert (Hle : 2 ^ p <= 2 ^ 63) by (apply N.pow_le_mono_r; lia).
    change (2 ^ 63) with 9223372036854775808 in Hle.
    rewrite (u64_shift_small p Hp).
    replace (u64 (2 ^ p - 1 + 2 ^ p)) with (2 ^ (p + 1) - 1) by (unfold u64; rewrite N.mod_small; lia).
    destruct (N.eq_dec p 63) as [->|Hne].
    + right. split; [lia|]. split; vm_compute; reflexivity.
    + left. assert (Hp' : p + 1 < 64) by lia. split; [exact Hp'|]. split; [reflexivity|].
      assert (Hle' : 2 ^ (p + 1) <= 2 ^ 63) by (apply N.pow_le_mono_r; lia).
      change (2 ^ 63) with 9223372036854775808 in Hle'.
      assert (Hpow' : 2 ^ (p + 1 + 1) = 2 * 2 ^ (p + 1)) by (rewrite (N.add_1_r (p + 1)); apply N.pow_succ_r').
      rewrite (u64_shift_small (p + 1) Hp'). unfold u64.
      rewrite (N.mod_small (2 ^ (p + 1) - 1 + 2 ^ (p + 1))) by lia.
      replace (2 ^ (p + 1) - 1 + 2 ^ (p + 1) + 18446744073709551615)
        with ((2 ^ (p + 1 + 1) - 2) + 1 * 18446744073709551616) by lia.
      rewrite N.mod_add by lia. apply N.mod_small. lia.
  - right. rewrite (u64_shift_big p Hp), (u64_shift_big (p + 1)) by lia.
    split; [lia|]. split; vm_compute; reflexivity.
Qed.

Lemma ue_loop64_stuck fuel : forall p offset max,
  ue_state p offset max -> p + N.of_nat fuel < 18446744073709551616 ->
  ue_loop64 fuel M64 offset p max = None.
Proof.
  induction fuel as [|f IH]; intros p offset max Hst Hfuel; cbn [ue_loop64]; [reflexivity|].
  assert (Hgt : (M64 <=? max) = false).
  { apply N.leb_gt. destruct Hst as [[Hp [_ ->]]|[_ [_ ->]]]; [|unfold M64; lia].
    assert (H : 2 ^ (p + 1) <= 2 ^ 64) by (apply N.pow_le_mono_r; lia).
    change (2 ^ 64) with 18446744073709551616 in H. unfold M64. lia. }
  rewrite Hgt. replace (u64 (p + 1)) with (p + 1) by (unfold u64; rewrite N.mod_small; lia).
  apply IH; [exact (ue_state_next p offset max Hst)|lia].
Qed.

(* WriteExpGolomb's prefix loop entered with the maximal uint (as the code before repo commit 9ec0951 did) does not
   return within any number of iterations below 2^64 *)
Lemma ue_loop64_diverges fuel :
  N.of_nat fuel < 18446744073709551616 -> ue_loop64 fuel M64 0 0 0 = None.
Proof.
  intros H. apply ue_loop64_stuck; [|lia]. left. split; [lia|]. split; reflexivity.
Qed.

(* for every other value the wrapping loop finds floor(log2(nr + 1)) without any wrap-around ... *)
Lemma ue_loop64_spec fuel : forall nr p,
  nr < M64 -> 2 ^ p <= nr + 1 -> nr + 1 < 2 ^ (p + N.of_nat fuel) ->
  exists q, ue_loop64 fuel nr (2 ^ p - 1) p (2 ^ (p + 1) - 2) = Some (q, nr + 1 - 2 ^ q)
            /\ 2 ^ q <= nr + 1 < 2 ^ (q + 1).
Proof.
  induction fuel as [|f IH]; intros nr p Hnr Hlo Hhi.
  - replace (p + N.of_nat 0) with p in Hhi by lia. lia.
  - cbn [ue_loop64]. unfold M64 in Hnr.
    assert (Hp : p < 64) by (apply (N.pow_lt_mono_r_iff 2); lia).
    assert (Hp1 : 2 ^ (p + 1) = 2 * 2 ^ p) by (rewrite N.add_1_r; apply N.pow_succ_r').
    destruct (N.leb_spec nr (2 ^ (p + 1) - 2)) as [Hin|Hgt].
    + exists p. split; [|lia]. do 2 f_equal. unfold u64.
      replace (nr + 18446744073709551616 - (2 ^ p - 1)) with ((nr + 1 - 2 ^ p) + 1 * 18446744073709551616) by lia.
      rewrite N.mod_add by lia. apply N.mod_small. lia.
    + (* the next state is an honest one: 2^(p+1) <= nr + 1 < 2^64 *)
      replace (u64 (p + 1)) with (p + 1) by (unfold u64; rewrite N.mod_small; lia).
      destruct (ue_state_next p _ _ (or_introl (conj Hp (conj eq_refl eq_refl)))) as [[Hp' [-> ->]]|[Hp' _]].
      2:{ assert (p = 63) by lia. subst p. change (2 ^ (63 + 1)) with 18446744073709551616 in Hgt. lia. }
      apply IH; [unfold M64; lia|lia|].
      replace (p + 1 + N.of_nat f) with (p + N.of_nat (S f)) by lia. exact Hhi.
Qed.

(* ... and is the loop of C13Model.ue_loop, which computes in N: the model's loop is faithful to the uint loop *)
Lemma ue_loop64_agrees nr : nr < M64 -> ue_loop64 64 nr 0 0 0 = Some (ue_loop 64 nr 0 0 0).
Proof.
  intros Hnr.
  assert (Hhi : nr + 1 < 2 ^ (0 + N.of_nat 64)) by (unfold M64 in Hnr; cbn; lia).
  destruct (ue_loop64_spec 64 nr 0 Hnr ltac:(cbn; lia) Hhi) as [q [Hq Hb]].
  destruct (C13WriterProofs.ue_loop_spec 64 nr 0 ltac:(cbn; lia) Hhi) as [q' [Hq' Hb']].
  change (2 ^ 0 - 1) with 0 in *. change (2 ^ (0 + 1) - 2) with 0 in *.
  rewrite Hq, Hq'.
  assert (E : q = q').
  { transitivity (N.log2 (nr + 1)); [symmetry|]; apply N.log2_unique; try lia;
      rewrite <- N.add_1_r; tauto. }
  subst q'. reflexivity.
Qed.
