(* C13RoundTrip.v — composition: what the writer wrote, the matching reader ops read back. *)
From V.lib Require Import Base.
From V.c13 Require Import C13Spec C13Model C13Bits C13EscProofs C13MarkProofs C13WriterProofs C13ReaderProofs.

(* value-carrying writer ops and their matching reader ops *)
Definition value_op (o : wop) : bool :=
  match o with
  | WBits v w => (w <=? 32) && (v <? 2 ^ w)
  | WFlag _ => true
  | WUe v => v <? 2 ^ 32
  | WSe k => se_to_ue k <? 2 ^ 32
  | _ => false
  end.

Definition rop_of (o : wop) : rop :=
  match o with WBits _ w => RBits w | WFlag _ => RFlag | WUe _ => RUe | WSe _ => RSe | _ => RFlag end.

Definition rval_of (o : wop) : rval :=
  match o with WBits v _ => VN v | WFlag b => VB b | WUe v => VN v | WSe k => VZ k | _ => VB false end.

Definition vbits (o : wop) : list bool := op_bits [] o.

(* the value-carrying ops that writer and reader both handle exactly: widths up to 57 bits,
   Exp-Golomb codes of up to 57 bits per half *)
Definition value_fits (o : wop) : Prop :=
  match o with
  | WBits v w => w <= 57 /\ v < 2 ^ w
  | WFlag _ => True
  | WUe v => v + 1 < 2 ^ 57
  | WSe k => se_to_ue k + 1 < 2 ^ 57
  | _ => False
  end.

Lemma value_op_fits o : value_op o = true -> value_fits o.
Proof. destruct o; cbn [value_op value_fits]; lia. Qed.

Lemma value_fits_op o : value_fits o -> op_fits o.
Proof. destruct o; cbn [value_fits op_fits]; tauto. Qed.

Lemma value_fits_bits cur o : value_fits o -> op_bits cur o = vbits o.
Proof. destruct o; cbn [value_fits]; intros H; try contradiction; reflexivity. Qed.

Lemma all_bits_fits ops : forall cur,
  Forall value_fits ops ->
  fold_left (fun cur o => cur ++ op_bits cur o) ops cur = cur ++ concat (map vbits ops).
Proof.
  induction ops as [|o t IH]; intros cur H; cbn [fold_left map concat]; [rewrite app_nil_r; reflexivity|].
  inversion H; subst. rewrite IH, (value_fits_bits cur o), <- app_assoc by assumption. reflexivity.
Qed.

Lemma ue_codes_agree v : ue_code v = ue_code' v.
Proof. rewrite ue_code_eq. reflexivity. Qed.

Lemma run_reader_fits ops : forall s rest,
  Forall value_fits ops -> RGood s -> rbits s = concat (map vbits ops) ++ rest ->
  exists s', run_reader (map rop_of ops) s = (map rval_of ops, s') /\ rbits s' = rest /\ RGood s'
             /\ rdata s' = rdata s.
Proof.
  induction ops as [|o t IH]; intros s rest Hok HG Hb.
  - exists s. cbn [map run_reader]. auto.
  - inversion Hok as [|? ? Ho Ht]; subst. cbn [map concat] in Hb. rewrite <- app_assoc in Hb.
    assert (Hstep : exists s1, rstep s (rop_of o) = (rval_of o, s1) /\
                               rbits s1 = concat (map vbits t) ++ rest /\ RGood s1 /\ rdata s1 = rdata s).
    { destruct o as [v w|b|v|k|v| | |]; cbn [value_fits] in Ho; try contradiction;
        cbn [rop_of rval_of rstep vbits op_bits] in *; rewrite ?ue_codes_agree in Hb.
      - destruct Ho as [Hw Hv].
        destruct (read_gen_fixed true s w v _ HG Hw Hv Hb) as [s1 [Hr H]]. exists s1. unfold read. rewrite Hr. auto.
      - destruct (read_flag_spec s b _ HG Hb) as [s1 [Hr H]]. exists s1. rewrite Hr. auto.
      - destruct (read_ue_spec57 s v _ HG ltac:(lia) Hb) as [s1 [Hr H]]. exists s1. rewrite Hr. auto.
      - destruct (read_se_spec57 s k _ HG ltac:(lia) Hb) as [s1 [Hr H]]. exists s1. rewrite Hr. auto. }
    destruct Hstep as [s1 [Hr [Hb1 [HG1 Hd1]]]].
    destruct (IH s1 rest Ht HG1 Hb1) as [s2 [Hr2 [Hb2 [HG2 Hd2]]]].
    exists s2. cbn [map run_reader]. rewrite Hr, Hr2. split; [reflexivity|split; [exact Hb2|split; [exact HG2|congruence]]].
Qed.

Lemma align_total cur : (length (cur ++ align_zeros cur) mod 8 = 0)%nat.
Proof.
  unfold align_zeros. rewrite app_length, repeat_length.
  pose proof (Nat.mod_upper_bound (length cur) 8 ltac:(lia)) as Hm.
  pose proof (Nat.div_mod (length cur) 8 ltac:(lia)) as Hd.
  destruct (Nat.eq_dec (length cur mod 8) 0) as [E|E].
  - rewrite E. cbn [Nat.sub]. rewrite Nat.mod_same by lia. rewrite Nat.add_0_r. exact E.
  - rewrite (Nat.mod_small (8 - length cur mod 8) 8) by lia.
    replace (length cur + (8 - length cur mod 8))%nat with (8 * (length cur / 8) + 1 * 8)%nat by lia.
    rewrite Nat.mod_add by lia. rewrite Nat.mul_comm. apply Nat.mod_mul. lia.
Qed.

(* writer output is the standard escaping of the whole bytes of the written bit stream *)
Lemma writer_is_escape_fits ops :
  Forall op_fits ops ->
  exists raw, wout (run_writer ops) = escape raw /\
              bytes_to_bits raw ++ pending (run_writer ops) = all_bits ops /\
              (length (pending (run_writer ops)) < 8)%nat /\
              Forall (fun b => b < 256) raw.
Proof.
  intros Hok. destruct (run_stream_fits ops winit [] WStream_init Hok) as [raw [[Hn [Hlt [Ho Hz]]] Hc]].
  exists raw. unfold wout. fold (run_writer ops) in *. rewrite Ho, rev_involutive. repeat split; try assumption.
  unfold pending. rewrite bits_of_length. lia.
Qed.

(* the whole round trip: write value ops + rbsp trailing bits with the EBSP writer, read the
   matching ops with the EBSP reader over the bytes that were written; what is left to read
   are the trailing bits *)
Lemma written_read_back ops :
  Forall value_fits ops ->
  let data := wout (run_writer (ops ++ [WTrail])) in
  exists s' k, run_reader (map rop_of ops) (rinit data) = (map rval_of ops, s') /\
               RGood s' /\ rbits s' = true :: repeat false k.
Proof.
  intros Hok data. set (cur := concat (map vbits ops)).
  assert (HS : WStream (run_writer (ops ++ [WTrail])) (cur ++ true :: align_zeros (cur ++ [true]))).
  { unfold run_writer. rewrite fold_left_app. cbn [fold_left].
    replace (cur ++ true :: align_zeros (cur ++ [true])) with (cur ++ op_bits cur WTrail) by reflexivity.
    apply wstep_stream_fits; [|exact I]. change cur with ([] ++ cur). unfold cur. rewrite <- (all_bits_fits ops [] Hok).
    apply run_stream_fits; [apply WStream_init|]. eapply Forall_impl; [exact value_fits_op|exact Hok]. }
  destruct (WStream_aligned _ _ HS) as [raw [Hout [Hraw [Hlt _]]]].
  { pose proof (align_total (cur ++ [true])) as H. rewrite <- app_assoc in H. exact H. }
  fold data in Hout.
  assert (HG : RGood (rinit data)).
  { split; [|cbn; lia]. apply RInv_init. rewrite Hout. apply escape_lt256. exact Hlt. }
  destruct (run_reader_fits ops (rinit data) (true :: align_zeros (cur ++ [true])) Hok HG) as [s' [Hr [Hb' [HG' _]]]].
  { rewrite rbits_init, Hout, unescape_escape. exact Hraw. }
  exists s', ((8 - length (cur ++ [true]) mod 8) mod 8)%nat. auto.
Qed.

Lemma value_op_ok o : value_op o = true -> op_ok o = true.
Proof. destruct o; cbn [value_op op_ok]; lia. Qed.

Lemma value_op_bits cur o : value_op o = true -> op_bits cur o = vbits o.
Proof. intros H. apply value_fits_bits, value_op_fits, H. Qed.

Lemma all_bits_values ops : forall cur,
  forallb value_op ops = true ->
  fold_left (fun cur o => cur ++ op_bits cur o) ops cur = cur ++ concat (map vbits ops).
Proof. intros cur H. apply all_bits_fits. exact (forallb_Forall _ _ _ value_op_fits H). Qed.

Lemma run_reader_values ops : forall s rest,
  forallb value_op ops = true -> RGood s -> rbits s = concat (map vbits ops) ++ rest ->
  exists s', run_reader (map rop_of ops) s = (map rval_of ops, s') /\ rbits s' = rest /\ RGood s'
             /\ rdata s' = rdata s.
Proof. intros s rest H. apply run_reader_fits. exact (forallb_Forall _ _ _ value_op_fits H). Qed.

Lemma reader_inverse ops :
  forallb value_op ops = true ->
  let data := wout (run_writer (ops ++ [WTrail])) in
  exists s', run_reader (map rop_of ops) (rinit data) = (map rval_of ops, s') /\ rerr s' = false.
Proof.
  intros Hok. destruct (written_read_back ops (forallb_Forall _ _ _ value_op_fits Hok)) as [s' [k [Hr [HG _]]]].
  exists s'. split; [exact Hr|exact (RGood_err s' HG)].
Qed.

Lemma writer_is_escape ops :
  forallb op_ok ops = true ->
  exists raw, wout (run_writer ops) = escape raw /\
              bytes_to_bits raw ++ pending (run_writer ops) = all_bits ops /\
              (length (pending (run_writer ops)) < 8)%nat /\
              Forall (fun b => b < 256) raw.
Proof. intros Hok. apply writer_is_escape_fits. exact (forallb_Forall _ _ _ op_ok_fits Hok). Qed.

(* plain writers (bits.Writer, FixedSliceWriter.WriteBits): same stream, no escaping *)
Lemma plain_writer_stream s raw bits n :
  WInv false s raw -> n <= 56 ->
  exists raw', WInv false (write_plain s bits n) raw' /\
    bytes_to_bits raw' ++ pending (write_plain s bits n) = bytes_to_bits raw ++ pending s ++ bits_of (N.to_nat n) bits.
Proof.
  intros HI Hn. destruct (write_gen_spec false s raw bits n HI Hn) as [raw' [H1 [H2 _]]].
  exists raw'. split; assumption.
Qed.

(* counters: positions are positions in the ESCAPED stream *)
Lemma counters_spec s :
  rn s < 8 ->
  nr_bytes_read s = rpos s /\ nr_bits_read s = (8 * Z.of_N (rpos s) - Z.of_N (rn s))%Z.
Proof.
  intros Hn. split; [reflexivity|]. unfold nr_bits_read, nr_bits_read_in_current_byte.
  destruct (Z.eqb_spec (8 - Z.of_N (rn s)) 8); lia.
Qed.

Lemma reader_bytes : forall l, Forall (fun b => b < 256) l ->
  exists s', read_bytes (length l) (rinit (escape l)) = (l, s') /\ rerr s' = false /\ rbits s' = [].
Proof.
  intros l Hl.
  assert (HG : RGood (rinit (escape l))).
  { split; [apply RInv_init, escape_lt256; exact Hl|cbn; lia]. }
  destruct (read_bytes_spec (length l) (rinit (escape l)) l [] HG eq_refl Hl) as [s' [Hr [Hb [[[He _] _] _]]]].
  - rewrite rbits_init, unescape_escape, app_nil_r. reflexivity.
  - exists s'. repeat split; assumption.
Qed.

Lemma ue_loop_top : forall nr, nr + 1 < 2 ^ 64 ->
  exists q, ue_loop 64 nr 0 0 0 = (q, nr + 1 - 2 ^ q) /\ 2 ^ q <= nr + 1 < 2 ^ (q + 1).
Proof. intros nr H. apply (ue_loop_spec 64 nr 0); [rewrite N.pow_0_r; lia|exact H]. Qed.
