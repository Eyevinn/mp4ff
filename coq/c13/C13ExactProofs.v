(* C13ExactProofs.v — the round trip over the whole domain the code handles: widths up to 57 bits,
   Exp-Golomb values up to 2^57 - 2 (unsigned) and the signed values mapped below that bound, written with the
   repaired writer (C13ModelExt.run_wx over an io.Writer that does not fail); and the witnesses showing that each
   bound is tight. *)
From V.lib Require Import Base.
From V.c13 Require Import C13Spec C13Model C13Bits C13EscProofs C13WriterProofs C13ReaderProofs
  C13RoundTrip C13ModelExt C13FailProofs.

Definition op_ok57 (o : wop) : bool :=
  match o with
  | WBits _ w => w <=? 57
  | WUe v => v <=? max_ue
  | WSe k => se_to_ue k <=? max_ue
  | WFlush => false
  | _ => true
  end.

Definition value_op57 (o : wop) : bool :=
  match o with
  | WBits v w => (w <=? 57) && (v <? 2 ^ w)
  | WFlag _ => true
  | WUe v => v <=? max_ue
  | WSe k => se_to_ue k <=? max_ue
  | _ => false
  end.

Lemma op_ok57_fits o : op_ok57 o = true -> op_fits o.
Proof. destruct o; cbn [op_ok57 op_fits]; unfold max_ue; lia. Qed.

Lemma value_op57_fits o : value_op57 o = true -> value_fits o.
Proof. destruct o; cbn [value_op57 value_fits]; unfold max_ue; lia. Qed.

Lemma wstep_stream57 s cur o :
  WStream s cur -> op_ok57 o = true -> WStream (wstep s o) (cur ++ op_bits cur o).
Proof. intros HS Hok. apply wstep_stream_fits; [exact HS|apply op_ok57_fits, Hok]. Qed.

Lemma run_writer_stream57_from ops : forall s cur,
  WStream s cur -> forallb op_ok57 ops = true ->
  WStream (fold_left wstep ops s) (fold_left (fun cur o => cur ++ op_bits cur o) ops cur).
Proof. intros s cur HS Hok. apply run_stream_fits; [exact HS|exact (forallb_Forall _ _ _ op_ok57_fits Hok)]. Qed.

Lemma run_writer_stream57 ops :
  forallb op_ok57 ops = true -> WStream (run_writer ops) (all_bits ops).
Proof. intros Hok. apply run_writer_stream57_from; [apply WStream_init|exact Hok]. Qed.

(* any op sequence within the exact bounds: output = standard escaping of the whole bytes of the bit codes *)
Lemma writer_is_escape57 ops :
  forallb op_ok57 ops = true ->
  exists raw, wout (run_writer ops) = escape raw /\
              bytes_to_bits raw ++ pending (run_writer ops) = all_bits ops /\
              (length (pending (run_writer ops)) < 8)%nat /\
              Forall (fun b => b < 256) raw.
Proof. intros Hok. apply writer_is_escape_fits. exact (forallb_Forall _ _ _ op_ok57_fits Hok). Qed.

Lemma value_op57_ok o : value_op57 o = true -> op_ok57 o = true.
Proof. destruct o; cbn [value_op57 op_ok57]; lia. Qed.

Lemma value_op57_ue_ok o : value_op57 o = true -> ue_ok o = true.
Proof. destruct o; cbn [value_op57 ue_ok]; lia. Qed.

Lemma value_op57_bits cur o : value_op57 o = true -> op_bits cur o = vbits o.
Proof. intros H. apply value_fits_bits, value_op57_fits, H. Qed.

Lemma all_bits_values57 ops : forall cur,
  forallb value_op57 ops = true ->
  fold_left (fun cur o => cur ++ op_bits cur o) ops cur = cur ++ concat (map vbits ops).
Proof. intros cur H. apply all_bits_fits. exact (forallb_Forall _ _ _ value_op57_fits H). Qed.

Lemma run_reader_values57 ops : forall s rest,
  forallb value_op57 ops = true -> RGood s -> rbits s = concat (map vbits ops) ++ rest ->
  exists s', run_reader (map rop_of ops) s = (map rval_of ops, s') /\ rbits s' = rest /\ RGood s'
             /\ rdata s' = rdata s.
Proof. intros s rest H. apply run_reader_fits. exact (forallb_Forall _ _ _ value_op57_fits H). Qed.

Lemma reader_inverse57 ops :
  forallb value_op57 ops = true ->
  let data := wout (run_writer (ops ++ [WTrail])) in
  exists s', run_reader (map rop_of ops) (rinit data) = (map rval_of ops, s') /\ rerr s' = false.
Proof.
  intros Hok. destruct (written_read_back ops (forallb_Forall _ _ _ value_op57_fits Hok)) as [s' [k [Hr [HG _]]]].
  exists s'. split; [exact Hr|exact (RGood_err s' HG)].
Qed.

(* the same about the repaired writer over an io.Writer that does not fail: no error, values read back *)
Lemma roundtrip_exact ops :
  forallb value_op57 ops = true ->
  let w := run_wx None (ops ++ [WTrail]) in
  xerr w = false /\
  exists s', run_reader (map rop_of ops) (rinit (xout w)) = (map rval_of ops, s') /\ rerr s' = false.
Proof.
  intros Hok w.
  assert (Hue : forallb ue_ok (ops ++ [WTrail]) = true).
  { rewrite forallb_app. cbn [forallb ue_ok]. rewrite andb_true_r.
    apply forallb_forall, Forall_forall. exact (forallb_Forall _ _ _ value_op57_ue_ok Hok). }
  unfold w. rewrite (run_wx_is_run_writer _ Hue). cbn [xerr]. split; [reflexivity|].
  unfold xout. cbn [xs]. apply reader_inverse57. exact Hok.
Qed.

(* every Exp-Golomb value is either coded exactly or refused with nothing written *)
Definition XStream (s : wx) (cur : list bool) : Prop :=
  xerr s = false /\ xrem s = None /\ WStream (xs s) cur.

Lemma write_ue_x_total s cur v :
  XStream s cur ->
  (v <= max_ue -> XStream (write_ue_x s v) (cur ++ ue_code v)) /\
  (max_ue < v -> write_ue_x s v = mkWX (xs s) true (xrem s)).
Proof.
  intros [He [Hr HS]]. destruct s as [st e r]. cbn [xerr xrem xs] in *. subst e r. split.
  - intros Hv. rewrite (write_ue_x_none st v Hv). split; [reflexivity|]. split; [reflexivity|].
    cbn [xs]. apply write_ue_code; [exact HS|]. unfold max_ue in Hv. lia.
  - intros Hv. unfold write_ue_x. destruct (N.ltb_spec max_ue v) as [_|H]; [reflexivity|lia].
Qed.

(* ------------------------------------------------------------------ the bounds are tight *)
(* the writer before repo commit 9ec0951 (= C13Model.write_ue, no range check) at 2^57 - 1 after 7 pending bits:
   the Exp-Golomb value itself comes back, the 7-bit value written before it is corrupted (7f -> 3f) *)
Lemma ue_bound_tight :
  let ops := [WBits 127 7; WUe (max_ue + 1)] in
  value_op57 (WUe (max_ue + 1)) = false /\
  fst (run_reader (map rop_of ops) (rinit (wout (run_writer (ops ++ [WTrail])))))
  = [VN 63; VN (max_ue + 1)].
Proof. vm_compute. split; reflexivity. Qed.

(* Write(v, 58) with 7 pending bits: 65 bits do not fit, the first pending bit is dropped *)
Lemma write_spill_58 :
  let ops := [WBits 127 7; WBits 1 58] in
  fst (run_reader (map rop_of ops) (rinit (wout (run_writer (ops ++ [WTrail])))))
  = [VN 63; VN 1].
Proof. vm_compute. reflexivity. Qed.

(* ... while 64 bits at a byte boundary are exact *)
Lemma write_64_aligned :
  let ops := [WBits 255 8; WBits 18446744073709551615 64] in
  fst (run_reader [RBits 8; RBits 32; RBits 32] (rinit (wout (run_writer (ops ++ [WTrail])))))
  = [VN 255; VN 4294967295; VN 4294967295].
Proof. vm_compute. reflexivity. Qed.

(* Read(58) with 1 pending bit: the refill loop shifts 65 bits through the 64-bit accumulator *)
Lemma read_spill_58 :
  let s1 := snd (read (rinit (repeat 255 10)) 7) in
  fst (read s1 58) = 2 ^ 57 - 1 /\ rerr (snd (read s1 58)) = false.
Proof. vm_compute. split; reflexivity. Qed.
