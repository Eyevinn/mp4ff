(* C13WideProofs.v — the exact domain of the 64-bit accumulators.
   Write(bits, n) is exact whenever pending + n <= 64 (so for every n <= 57 whatever the alignment), Read(n) for
   every n <= 57; Exp-Golomb values are coded exactly up to 2^57 - 2 (the bound of repo commit 9ec0951) and decoded
   exactly up to 2^58 - 2 (C13ReaderProofs.read_ue_spec57).  Instances of the general statements of
   C13WriterProofs / C13ReaderProofs at these bounds. *)
From V.lib Require Import Base.
From V.c13 Require Import C13Spec C13Model C13Bits C13EscProofs C13WriterProofs C13ReaderProofs C13ModelExt.

(* bits above the width are masked, not spilled into the neighbouring values *)
Lemma write_gen_masks esc s bits n : write_gen esc s bits n = write_gen esc s (bits mod 2 ^ n) n.
Proof.
  unfold write_gen. rewrite !N.land_ones. rewrite N.mod_mod by (apply N.pow_nonzero; lia). reflexivity.
Qed.

Lemma write_stream57 s cur bits n :
  WStream s cur -> n <= 57 -> WStream (write s bits n) (cur ++ bits_of (N.to_nat n) bits).
Proof. intros HS Hn. apply write_stream_fit; [exact HS|]. apply WStream_wn in HS. lia. Qed.

Lemma write_ue_stream57 s cur v :
  WStream s cur -> v <= max_ue -> WStream (write_ue s v) (cur ++ ue_code v).
Proof. intros HS Hv. apply write_ue_code; [exact HS|]. unfold max_ue in Hv. lia. Qed.

Lemma fill_ok57 fuel : forall s n,
  RInv s -> n <= 57 -> rn s < n + 8 ->
  n <= N.of_nat (length (rbits s)) -> n <= rn s + 8 * N.of_nat fuel ->
  let s1 := fill true fuel s n in
  RInv s1 /\ n <= rn s1 /\ rn s1 < n + 8 /\ rbits s1 = rbits s /\ rdata s1 = rdata s
  /\ (n <= rn s -> s1 = s).
Proof. exact (fill_exact true fuel). Qed.

Lemma read_spec57 s n :
  RInv s -> rn s < 8 -> n <= 57 -> n <= N.of_nat (length (rbits s)) ->
  let '(v, s') := read s n in
  v = val_of (firstn (N.to_nat n) (rbits s)) /\
  rbits s' = skipn (N.to_nat n) (rbits s) /\
  RInv s' /\ rn s' < 8 /\ rdata s' = rdata s.
Proof. exact (read_gen_exact true s n). Qed.

Lemma read_prefix57 s n pre rest :
  RGood s -> n <= 57 -> rbits s = pre ++ rest -> length pre = N.to_nat n ->
  exists s', read s n = (val_of pre, s') /\ rbits s' = rest /\ RGood s' /\ rdata s' = rdata s.
Proof. exact (read_gen_prefix true s n pre rest). Qed.

Lemma read_fixed57 s w v rest :
  RGood s -> w <= 57 -> v < 2 ^ w -> rbits s = bits_of (N.to_nat w) v ++ rest ->
  exists s', read s w = (v, s') /\ rbits s' = rest /\ RGood s' /\ rdata s' = rdata s.
Proof. exact (read_gen_fixed true s w v rest). Qed.

Lemma fill_fail57 fuel : forall s n,
  RInv s -> n <= 57 -> N.of_nat (length (rbits s)) < n -> n <= rn s + 8 * N.of_nat fuel ->
  rerr (fill true fuel s n) = true.
Proof. intros s n _ _. exact (fill_short true fuel s n). Qed.

Lemma read_fail57 s n :
  RInv s -> rn s < 8 -> n <= 57 -> N.of_nat (length (rbits s)) < n ->
  fst (read s n) = 0 /\ rerr (snd (read s n)) = true.
Proof. intros _ _ _. exact (read_gen_short true s n). Qed.
