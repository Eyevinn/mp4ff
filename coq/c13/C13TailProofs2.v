(* C13TailProofs2.v — Reader.ReadRemainingBytes and FixedSliceWriter.WriteString (models: C13ModelTail.v).
   ReadRemainingBytes in the bit-stream view of the plain reader (pbits), the round trip "values + Flush,
   then arbitrary bytes" and WriteString as the WriteBytes of its bytes and terminator. *)
From V.lib Require Import Base.
From V.c13 Require Import C13Spec C13Model C13Bits C13WriterProofs C13ReaderProofs C13RoundTrip C13PlainProofs
  C13ModelExt C13ModelTail C13FswProofs C13StickyProofs.

(* ------------------------------------------------------------------ WriteString *)
Definition str_bytes (l : list N) (z : bool) : list N := l ++ (if z then [0] else []).

Lemma fput_string_is_fput s l z : fput_string s l z = fput s (str_bytes l z).
Proof.
  unfold fput_string, fput, str_bytes. rewrite app_length. destruct z; cbn [length].
  - replace (N.of_nat (length l + 1)) with (N.of_nat (length l) + 1) by lia.
    destruct (fcap s <? foff s + (N.of_nat (length l) + 1)); [reflexivity|].
    cbn [fcap frev ferr fn fv]. rewrite rev_app_distr. reflexivity.
  - rewrite Nat.add_0_r, N.add_0_r.
    destruct (fcap s <? foff s + N.of_nat (length l)); [reflexivity|].
    rewrite app_nil_r. reflexivity.
Qed.

Lemma fstep2_lower s o : fstep2 s o = fstep s (lower_fop2 o).
Proof. destruct o as [o|l z]; cbn [fstep2 lower_fop2 fstep]; [reflexivity|apply fput_string_is_fput]. Qed.

Lemma run_fsw2_lower cap ops : run_fsw2 cap ops = run_fsw cap (map lower_fop2 ops).
Proof.
  unfold run_fsw2, run_fsw. generalize (finit cap).
  induction ops as [|o t IH]; intros s; cbn [fold_left map]; [reflexivity|].
  rewrite fstep2_lower. apply IH.
Qed.

Lemma run_fsw2_within_capacity cap ops : foff (run_fsw2 cap ops) <= cap.
Proof. rewrite run_fsw2_lower. apply run_fsw_within_capacity. Qed.

(* all or nothing: the bytes of the string and the terminator, or only the error *)
Lemma fput_string_cases s l z :
  if fcap s <? foff s + N.of_nat (length (str_bytes l z))
  then fbytes (fput_string s l z) = fbytes s /\ ferr (fput_string s l z) = true
  else fbytes (fput_string s l z) = fbytes s ++ str_bytes l z /\ ferr (fput_string s l z) = ferr s.
Proof.
  rewrite fput_string_is_fput. unfold fput.
  destruct (fcap s <? foff s + N.of_nat (length (str_bytes l z))); unfold fbytes; cbn [frev ferr].
  - split; reflexivity.
  - rewrite rev_app_distr, rev_involutive. split; reflexivity.
Qed.

Lemma fput_string_bits s l z : fn (fput_string s l z) = fn s /\ fv (fput_string s l z) = fv s /\ fcap (fput_string s l z) = fcap s.
Proof.
  rewrite fput_string_is_fput. unfold fput.
  destruct (fcap s <? foff s + N.of_nat (length (str_bytes l z))); cbn [fn fv fcap]; repeat split.
Qed.

(* ------------------------------------------------------------------ ReadRemainingBytes *)
Lemma skipn_firstn_nil {A} n (l : list A) : skipn n (firstn n l) = [].
Proof. apply skipn_all2. apply firstn_le_length. Qed.

Lemma Forall_firstn_ {A} (P : A -> Prop) n l : Forall P l -> Forall P (firstn n l).
Proof.
  intros H. rewrite <- (firstn_skipn n l) in H. apply Forall_app in H. apply H.
Qed.

Lemma Forall_skipn_ {A} (P : A -> Prop) n l : Forall P l -> Forall P (skipn n l).
Proof.
  intros H. rewrite <- (firstn_skipn n l) in H. apply Forall_app in H. apply H.
Qed.

(* the reader has handed out everything: no pending bits, nothing behind rpos *)
Definition Drained (s : rstate) : Prop :=
  rerr s = false /\ rn s = 0 /\ skipn (N.to_nat (rpos s)) (rdata s) = [].

(* a read of at least one bit from a drained reader fails at once: 0, error set, counters where they were *)
Lemma read_plain_drained s n :
  Drained s -> 1 <= n ->
  exists s', read_plain s n = (0, s') /\ rerr s' = true /\ rpos s' = rpos s /\ rn s' = 0.
Proof.
  intros [He [Hn Hsk]] H1. unfold read_plain, read_gen. rewrite He.
  cbn [fill]. rewrite Hn.
  destruct (N.ltb_spec 0 n) as [_|Hc]; [|lia].
  unfold byte_at.
  destruct (nth_error (rdata s) (N.to_nat (rpos s))) as [b|] eqn:Eb.
  { rewrite (nth_error_skipn _ _ _ Eb) in Hsk. discriminate. }
  cbn [rerr]. eexists. split; [reflexivity|]. cbn [rerr rpos rn]. repeat split; try exact Hn; try reflexivity.
Qed.

Lemma read_remaining_spec s :
  RGood s ->
  if rn s =? 0 then
    exists tail s', read_remaining s = (Some tail, s') /\
      pbits s = bytes_to_bits tail /\ Forall lt256 tail /\
      RGood s' /\ Drained s' /\ pbits s' = [] /\ rpos s' = rpos s
  else
    exists s', read_remaining s = (None, s') /\ rerr s' = true /\ rpos s' = rpos s /\ rn s' = rn s.
Proof.
  intros [[He [Hv Hd]] Hrn]. unfold read_remaining. rewrite He.
  destruct (N.eqb_spec (rn s) 0) as [E|E]; cbn [negb].
  - eexists. eexists. split; [reflexivity|].
    assert (Hp : pbits s = bytes_to_bits (skipn (N.to_nat (rpos s)) (rdata s))).
    { unfold pbits. rewrite E. reflexivity. }
    split; [exact Hp|]. split; [apply Forall_skipn_; exact Hd|].
    split; [|split; [|split]].
    + split; [|cbn [rn]; exact Hrn]. unfold RInv. cbn [rerr rv rn rdata].
      split; [reflexivity|]. split; [exact Hv|]. apply Forall_firstn_. exact Hd.
    + unfold Drained. cbn [rerr rn rpos rdata]. split; [reflexivity|]. split; [exact E|].
      apply skipn_firstn_nil.
    + unfold pbits. cbn [rn rv rpos rdata]. rewrite E, skipn_firstn_nil. reflexivity.
    + reflexivity.
  - eexists. split; [reflexivity|]. cbn [rerr rpos rn]. repeat split.
Qed.

Lemma read_remaining_sticky s : rerr s = true -> read_remaining s = (None, s).
Proof. intros H. unfold read_remaining. rewrite H. reflexivity. Qed.

(* the reads of the written values: the fold of C13PlainProofs.plain_reads_values, named *)
Definition plain_reads (ops : list wop) (acc : list N) (s : rstate) : list N * rstate :=
  fold_left (fun '(acc, st) o =>
               match o with
               | WBits _ w => let '(v, st') := read_plain st w in (acc ++ [v], st')
               | _ => let '(v, st') := read_plain st 1 in (acc ++ [v], st')
               end) ops (acc, s).

Definition plain_vals (ops : list wop) : list N :=
  map (fun o => match o with WBits v _ => v | WFlag b => N.b2n b | _ => 0 end) ops.

Lemma plain_reads_state : forall ops acc s rest,
  forallb plain_op ops = true -> RGood s -> pbits s = concat (map pvbits ops) ++ rest ->
  exists s', plain_reads ops acc s = (acc ++ plain_vals ops, s') /\
             RGood s' /\ pbits s' = rest /\ rdata s' = rdata s.
Proof. exact plain_reads_values. Qed.

(* the byte position never runs past the input *)
Lemma plain_reads_pos_le : forall ops acc s,
  (N.to_nat (rpos s) <= length (rdata s))%nat ->
  (N.to_nat (rpos (snd (plain_reads ops acc s))) <= length (rdata s))%nat.
Proof.
  unfold plain_reads. induction ops as [|o t IH]; intros acc s H; cbn [fold_left]; [exact H|].
  assert (G : forall w, (N.to_nat (rpos (snd (read_plain s w))) <= length (rdata (snd (read_plain s w))))%nat
                        /\ rdata (snd (read_plain s w)) = rdata s).
  { intros w. destruct (read_gen_pos_le false s w ltac:(lia)) as [Hp Hd]. unfold read_plain. rewrite Hd. split; [lia|reflexivity]. }
  destruct o as [v w|b| | | | | |];
    match goal with |- context [read_plain s ?w] =>
      destruct (G w) as [Hp Hd]; destruct (read_plain s w) as [x st'] eqn:E; cbn [snd] in Hp, Hd;
      rewrite <- Hd; apply IH; exact Hp end.
Qed.

(* values (widths 1..32 that fit, flags) written with Writer / FixedSliceWriter.WriteBits, Flush, then arbitrary bytes:
   the values are read back; if they fill whole bytes ReadRemainingBytes returns exactly the bytes behind them and
   leaves the reader drained without error, otherwise (1..7 padding bits pending) it returns nil and sets the error *)
Lemma remaining_roundtrip ops tail :
  forallb plain_op ops = true -> Forall lt256 tail ->
  let head := wout (flush_plain (run_writer_plain ops)) in
  exists s1, plain_reads ops [] (rinit (head ++ tail)) = (plain_vals ops, s1) /\ rerr s1 = false /\
    if (N.of_nat (length (concat (map pvbits ops))) mod 8 =? 0)
    then exists s2, read_remaining s1 = (Some tail, s2) /\ Drained s2 /\ rpos s2 = N.of_nat (length head)
    else exists s2, read_remaining s1 = (None, s2) /\ rerr s2 = true.
Proof.
  intros Hok Htail head.
  assert (HS : PStream (run_writer_plain ops) (concat (map pvbits ops))).
  { exact (run_plain_stream ops winit [] ltac:(exists []; split; [apply WInv_init|reflexivity]) Hok). }
  destruct (flush_plain_pad _ _ HS) as [pad [Hbits [Hpad Hlt]]].
  fold head in Hbits, Hlt.
  set (data := head ++ tail).
  set (cur := concat (map pvbits ops)) in *.
  assert (HG0 : RGood (rinit data)).
  { split; [apply RInv_init; unfold data; apply Forall_app; split; [exact Hlt|exact Htail]|cbn; lia]. }
  assert (Hp0 : pbits (rinit data) = cur ++ (pad ++ bytes_to_bits tail)).
  { unfold pbits, rinit. cbn [rn rv rpos rdata N.to_nat bits_of skipn app].
    unfold data. rewrite bytes_to_bits_app, Hbits, <- app_assoc. reflexivity. }
  destruct (plain_reads_state ops [] (rinit data) _ Hok HG0 Hp0) as [s1 [Hr [HG1 [Hp1 Hd1]]]].
  exists s1. split; [exact Hr|]. split; [exact (RGood_err s1 HG1)|].
  cbn [rinit rdata] in Hd1.
  pose proof (read_remaining_spec s1 HG1) as HR.
  assert (Hle : (N.to_nat (rpos s1) <= length data)%nat).
  { pose proof (plain_reads_pos_le ops [] (rinit data) ltac:(cbn; lia)) as Hq.
    rewrite Hr in Hq. exact Hq. }
  (* in bits: 8 |head| = |cur| + |pad| and rn s1 + 8 (|data| - rpos s1) = |pad| + 8 |tail|, with rn s1, |pad| < 8 *)
  pose proof (f_equal (@length bool) Hbits) as HL.
  rewrite bytes_to_bits_length, app_length in HL.
  pose proof (f_equal (@length bool) Hp1) as HL1.
  unfold pbits in HL1.
  rewrite !app_length, bits_of_length, !bytes_to_bits_length, Hd1, skipn_length in HL1.
  assert (Hdl : length data = (length head + length tail)%nat) by (unfold data; apply app_length).
  pose proof (proj2 HG1) as Hrn1.
  assert (Hrn : N.to_nat (rn s1) = length pad /\ (length pad = 0%nat -> N.to_nat (rpos s1) = length head))
    by (clear - HL HL1 Hdl Hpad Hrn1 Hle; lia).
  assert (Hal : N.of_nat (length cur) mod 8 = 0 <-> length pad = 0%nat) by (clear - HL Hpad; lia).
  clear HL HL1. destruct Hrn as [Hrn Hrp].
  destruct (N.eqb_spec (N.of_nat (length cur) mod 8) 0) as [Em|Em].
  - (* whole bytes: no padding, nothing pending *)
    apply Hal in Em. replace (rn s1) with 0 in HR by lia. cbn [N.eqb] in HR.
    destruct HR as [tl [s2 [Hrr [_ [_ [_ [Hdr [_ Hpos]]]]]]]].
    exists s2. split; [|split; [exact Hdr|rewrite Hpos; lia]].
    rewrite Hrr. do 2 f_equal.
    unfold read_remaining in Hrr. rewrite (RGood_err s1 HG1) in Hrr.
    replace (rn s1) with 0 in Hrr by lia. cbn [N.eqb negb] in Hrr. inversion Hrr as [[Ht Hs]].
    rewrite Hd1, (Hrp Em). apply skipn_app_len. reflexivity.
  - (* 1..7 padding bits are pending *)
    destruct (N.eqb_spec (rn s1) 0) as [E|_]; [exfalso; apply Em, Hal; lia|].
    destruct HR as [s2 [Hrr [He2 _]]]. exists s2. split; [exact Hrr|exact He2].
Qed.
