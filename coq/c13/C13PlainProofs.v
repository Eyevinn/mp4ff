(* C13PlainProofs.v — bits.Writer / FixedSliceWriter.WriteBits and bits.Reader (no emulation
   prevention): the same bit-stream refinement and the write/flush/read round trip. *)
From V.lib Require Import Base.
From V.c13 Require Import C13Spec C13Model C13Bits C13WriterProofs C13ReaderProofs C13RoundTrip.

Definition pbits (s : rstate) : list bool :=
  bits_of (N.to_nat (rn s)) (rv s) ++ bytes_to_bits (skipn (N.to_nat (rpos s)) (rdata s)).

Lemma fill_plain_ok fuel : forall s n,
  RInv s -> n <= 56 -> rn s < n + 8 ->
  n <= N.of_nat (length (pbits s)) -> n <= rn s + 8 * N.of_nat fuel ->
  let s1 := fill false fuel s n in
  RInv s1 /\ n <= rn s1 /\ rn s1 < n + 8 /\ pbits s1 = pbits s /\ rdata s1 = rdata s.
Proof.
  intros s n HI Hn Hrn Hlen Hfuel.
  destruct (fill_exact false fuel s n HI ltac:(lia) Hrn Hlen Hfuel) as [H1 [H2 [H3 [H4 [H5 _]]]]].
  exact (conj H1 (conj H2 (conj H3 (conj H4 H5)))).
Qed.

Lemma read_plain_prefix s n pre rest :
  RGood s -> n <= 56 -> pbits s = pre ++ rest -> length pre = N.to_nat n ->
  exists s', read_plain s n = (val_of pre, s') /\ pbits s' = rest /\ RGood s' /\ rdata s' = rdata s.
Proof. intros HG Hn. exact (read_gen_prefix false s n pre rest HG ltac:(lia)). Qed.

(* plain value ops: Write(v,w) with v < 2^w, w <= 32, and flags *)
Definition plain_op (o : wop) : bool :=
  match o with WBits v w => (w <=? 32) && (v <? 2 ^ w) | WFlag _ => true | _ => false end.

Definition pvbits (o : wop) : list bool :=
  match o with WBits v w => bits_of (N.to_nat w) v | WFlag b => [b] | _ => [] end.

Definition PStream (s : wstate) (cur : list bool) : Prop :=
  exists raw, WInv false s raw /\ bytes_to_bits raw ++ pending s = cur.

Lemma wstep_plain_stream s cur o :
  PStream s cur -> plain_op o = true -> PStream (wstep_plain s o) (cur ++ pvbits o).
Proof.
  intros [raw [HI Hc]] Hok. destruct o as [v w|b| | | | | |]; cbn [plain_op] in Hok; try discriminate;
    cbn [wstep_plain pvbits].
  - apply andb_true_iff in Hok. destruct Hok as [Hw _]. apply N.leb_le in Hw.
    destruct (plain_writer_stream s raw v w HI ltac:(lia)) as [raw' [HI' Hs]].
    exists raw'. split; [exact HI'|]. rewrite Hs, <- Hc, <- app_assoc. reflexivity.
  - destruct (plain_writer_stream s raw (if b then 1 else 0) 1 HI ltac:(lia)) as [raw' [HI' Hs]].
    exists raw'. split; [exact HI'|]. rewrite Hs, <- Hc, <- app_assoc. destruct b; reflexivity.
Qed.

Lemma run_plain_stream ops : forall s cur,
  PStream s cur -> forallb plain_op ops = true ->
  PStream (fold_left wstep_plain ops s) (cur ++ concat (map pvbits ops)).
Proof.
  induction ops as [|o t IH]; intros s cur HS Hok; cbn [fold_left map concat].
  - rewrite app_nil_r. exact HS.
  - cbn [forallb] in Hok. apply andb_true_iff in Hok. destruct Hok as [Ho Ht].
    rewrite app_assoc. apply IH; [|exact Ht]. apply wstep_plain_stream; assumption.
Qed.

(* Flush: the pending bits, left-aligned and zero-padded, become one more byte *)
Lemma flush_plain_pad s cur :
  PStream s cur ->
  exists pad, bytes_to_bits (wout (flush_plain s)) = cur ++ pad /\ (length pad < 8)%nat /\
              Forall (fun b => b < 256) (wout (flush_plain s)).
Proof.
  intros [raw [[Hn [Hlt Ho]] Hc]]. unfold flush_plain, wout.
  destruct (N.eqb_spec (wn s) 0) as [E|E].
  - exists []. rewrite Ho, rev_involutive, app_nil_r. split; [|split; [cbn; lia|exact Hlt]].
    unfold pending in Hc. rewrite E in Hc. cbn [N.to_nat bits_of] in Hc. rewrite app_nil_r in Hc. exact Hc.
  - exists (repeat false (8 - N.to_nat (wn s))). cbn [wrev rev]. rewrite Ho, rev_involutive.
    split; [|split; [rewrite repeat_length; lia|]].
    + rewrite bytes_to_bits_app, <- Hc, <- app_assoc. f_equal.
      unfold bytes_to_bits. cbn [flat_map]. rewrite app_nil_r, <- bits_of_0. unfold pending.
      replace 8%nat with (N.to_nat (wn s) + (8 - N.to_nat (wn s)))%nat at 1 by lia.
      apply bits_of_app_ext; intros i Hi; rewrite N.land_spec; change 255 with (N.ones 8);
        rewrite N.ones_spec_low, andb_true_r by lia.
      * rewrite N.shiftl_spec_low, N.bits_0 by lia. reflexivity.
      * rewrite N.shiftl_spec_high' by lia. f_equal. lia.
    + apply Forall_app. split; [exact Hlt|]. constructor; [|constructor].
      rewrite land_255. apply N.mod_lt. lia.
Qed.

Lemma flush_plain_out s cur :
  PStream s cur ->
  exists pad, bytes_to_bits (wout (flush_plain s)) = cur ++ pad /\ Forall (fun b => b < 256) (wout (flush_plain s)).
Proof. intros HS. destruct (flush_plain_pad s cur HS) as [pad [H1 [_ H2]]]. exists pad. split; assumption. Qed.

(* reading the written values back; acc collects them *)
Lemma plain_reads_values : forall ops acc s rest,
  forallb plain_op ops = true -> RGood s -> pbits s = concat (map pvbits ops) ++ rest ->
  exists s', fold_left (fun '(acc, st) o =>
               match o with
               | WBits _ w => let '(v, st') := read_plain st w in (acc ++ [v], st')
               | _ => let '(v, st') := read_plain st 1 in (acc ++ [v], st')
               end) ops (acc, s)
             = (acc ++ map (fun o => match o with WBits v _ => v | WFlag b => N.b2n b | _ => 0 end) ops, s')
             /\ RGood s' /\ pbits s' = rest /\ rdata s' = rdata s.
Proof.
  induction ops as [|o t IH]; intros acc s rest Hok HG Hb.
  - exists s. cbn [fold_left map]. rewrite app_nil_r. auto.
  - cbn [forallb] in Hok. apply andb_true_iff in Hok. destruct Hok as [Ho Ht].
    cbn [map concat] in Hb. rewrite <- app_assoc in Hb. cbn [fold_left].
    assert (Hstep : exists v s1, match o with WBits _ w => read_plain s w | _ => read_plain s 1 end = (v, s1) /\
              v = match o with WBits v _ => v | WFlag b => N.b2n b | _ => 0 end /\
              RGood s1 /\ pbits s1 = concat (map pvbits t) ++ rest /\ rdata s1 = rdata s).
    { destruct o as [v w|b| | | | | |]; cbn [plain_op] in Ho; try discriminate; cbn [pvbits] in Hb.
      - apply andb_true_iff in Ho. destruct Ho as [Hw Hv]. apply N.leb_le in Hw. apply N.ltb_lt in Hv.
        destruct (read_gen_fixed false s w v _ HG ltac:(lia) Hv Hb) as [s1 [Hr [Hb1 [HG1 Hd1]]]].
        exists v, s1. split; [exact Hr|auto].
      - destruct (read_gen_prefix false s 1 [b] _ HG ltac:(lia) Hb eq_refl) as [s1 [Hr [Hb1 [HG1 Hd1]]]].
        exists (val_of [b]), s1. split; [exact Hr|]. split; [destruct b; reflexivity|auto]. }
    destruct Hstep as [v [s1 [Hr [Hv [HG1 [Hb1 Hd1]]]]]].
    destruct (IH (acc ++ [v]) s1 rest Ht HG1 Hb1) as [s2 [H2 [HG2 [Hb2 Hd2]]]].
    exists s2. split; [|split; [exact HG2|split; [exact Hb2|congruence]]].
    rewrite <- app_assoc in H2. cbn [app] in H2. cbn [map]. rewrite <- Hv, <- H2. destruct o; rewrite Hr; reflexivity.
Qed.

Lemma run_reader_plain_values : forall ops s rest,
  forallb plain_op ops = true -> RGood s -> pbits s = concat (map pvbits ops) ++ rest ->
  exists s', fold_left (fun '(acc, st) o =>
               match o with
               | WBits _ w => let '(v, st') := read_plain st w in (acc ++ [v], st')
               | _ => let '(v, st') := read_plain st 1 in (acc ++ [v], st')
               end) ops ([], s)
             = (map (fun o => match o with WBits v _ => v | WFlag b => N.b2n b | _ => 0 end) ops, s')
             /\ rerr s' = false.
Proof.
  intros ops s rest Hok HG Hb.
  destruct (plain_reads_values ops [] s rest Hok HG Hb) as [s' [Hr [HG' _]]].
  exists s'. split; [exact Hr|exact (RGood_err s' HG')].
Qed.

(* round trip through bits.Writer (or FixedSliceWriter.WriteBits) + Flush and bits.Reader *)
Lemma plain_roundtrip ops :
  forallb plain_op ops = true ->
  let data := wout (flush_plain (run_writer_plain ops)) in
  exists s', fold_left (fun '(acc, st) o =>
               match o with
               | WBits _ w => let '(v, st') := read_plain st w in (acc ++ [v], st')
               | _ => let '(v, st') := read_plain st 1 in (acc ++ [v], st')
               end) ops ([], rinit data)
             = (map (fun o => match o with WBits v _ => v | WFlag b => N.b2n b | _ => 0 end) ops, s')
             /\ rerr s' = false.
Proof.
  intros Hok data.
  assert (HS : PStream (run_writer_plain ops) (concat (map pvbits ops))).
  { pose proof (run_plain_stream ops winit [] ltac:(exists []; split; [apply WInv_init|reflexivity]) Hok) as H.
    exact H. }
  destruct (flush_plain_out _ _ HS) as [pad [Hbits Hlt]]. fold data in Hbits, Hlt.
  apply (run_reader_plain_values ops (rinit data) pad Hok).
  - split; [apply RInv_init; exact Hlt|cbn; lia].
  - unfold pbits, rinit. cbn [rn rv rpos rdata N.to_nat bits_of skipn app]. exact Hbits.
Qed.
