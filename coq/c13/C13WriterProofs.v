(* C13WriterProofs.v — the word-level writer of C13Model (shift / or / mask on a 64-bit
   accumulator, byte-draining loop, zero-run counter) refines the bit-stream view:
   after any Write the logical stream grows by exactly the written bits, and the bytes
   emitted are the standard escaping of the whole bytes of that stream. *)
From V.lib Require Import Base.
From V.c13 Require Import C13Spec C13Model C13Bits C13EscProofs.

(* ------------------------------------------------------------------ chunking a bit list *)
Fixpoint chunk8 (fuel : nat) (l : list bool) : list N * list bool :=
  match fuel with
  | O => ([], l)
  | S f =>
      if (8 <=? length l)%nat then
        let '(bs, r) := chunk8 f (skipn 8 l) in (val_of (firstn 8 l) :: bs, r)
      else ([], l)
  end.

Lemma chunk8_concat fuel l :
  bytes_to_bits (fst (chunk8 fuel l)) ++ snd (chunk8 fuel l) = l.
Proof.
  revert l. induction fuel as [|f IH]; intros l; cbn [chunk8]; [reflexivity|].
  destruct (Nat.leb_spec 8 (length l)) as [H|H]; [|reflexivity].
  specialize (IH (skipn 8 l)). destruct (chunk8 f (skipn 8 l)) as [bs r]. cbn [fst snd] in *.
  unfold bytes_to_bits in *. cbn [flat_map]. rewrite <- app_assoc, IH.
  replace 8%nat with (length (firstn 8 l)) at 1 by (rewrite firstn_length; lia).
  rewrite bits_of_val_of. apply firstn_skipn.
Qed.

Lemma chunk8_rest_short fuel l : (length l < 8 * fuel)%nat -> (length (snd (chunk8 fuel l)) < 8)%nat.
Proof.
  revert l. induction fuel as [|f IH]; intros l H; [lia|]. cbn [chunk8].
  destruct (Nat.leb_spec 8 (length l)) as [H8|H8]; [|exact H8].
  specialize (IH (skipn 8 l)). destruct (chunk8 f (skipn 8 l)) as [bs r]. cbn [snd] in *.
  apply IH. rewrite skipn_length. lia.
Qed.

Lemma chunk8_bytes_lt fuel l : Forall (fun b => b < 256) (fst (chunk8 fuel l)).
Proof.
  revert l. induction fuel as [|f IH]; intros l; cbn [chunk8]; [constructor|].
  destruct (Nat.leb_spec 8 (length l)) as [H8|H8]; [|constructor].
  specialize (IH (skipn 8 l)). destruct (chunk8 f (skipn 8 l)) as [bs r]. cbn [fst] in *.
  constructor; [|exact IH].
  pose proof (val_of_lt (firstn 8 l)) as Hlt. rewrite firstn_length in Hlt.
  replace (Nat.min 8 (length l)) with 8%nat in Hlt by lia. exact Hlt.
Qed.

(* ------------------------------------------------------------------ emitting bytes *)
Fixpoint emit_all (esc : bool) (z : N) (out : list N) (l : list N) : N * list N :=
  match l with
  | [] => (z, out)
  | b :: t => let '(z', o') := emit_byte esc b z out in emit_all esc z' o' t
  end.

Fixpoint zafter (z : N) (l : list N) : N :=
  match l with
  | [] => z
  | b :: t =>
      zafter (if (z =? 2) && (b <=? 3) then (if b =? 0 then 1 else 0)
              else (if b =? 0 then z + 1 else 0)) t
  end.

Lemma emit_all_esc z out l :
  emit_all true z out l = (zafter z l, rev (escape_from z l) ++ out).
Proof.
  revert z out. induction l as [|b t IH]; intros z out; [reflexivity|].
  cbn [emit_all escape_from zafter]. unfold emit_byte. cbn [andb].
  destruct ((z =? 2) && (b <=? 3)) eqn:E; cbv beta iota.
  - rewrite IH. f_equal. cbn [rev]. rewrite <- !app_assoc. reflexivity.
  - rewrite IH. f_equal. cbn [rev]. rewrite <- !app_assoc. reflexivity.
Qed.

Lemma emit_all_plain z out l : snd (emit_all false z out l) = rev l ++ out.
Proof.
  revert z out. induction l as [|b t IH]; intros z out; [reflexivity|].
  cbn [emit_all]. unfold emit_byte. cbn [andb]. cbv beta iota.
  rewrite IH. cbn [rev]. rewrite <- app_assoc. reflexivity.
Qed.

Lemma escape_from_app z l1 l2 :
  escape_from z (l1 ++ l2) = escape_from z l1 ++ escape_from (zafter z l1) l2.
Proof.
  revert z. induction l1 as [|b t IH]; intros z; [reflexivity|].
  cbn [app escape_from zafter].
  destruct ((z =? 2) && (b <=? 3)); cbn [app]; rewrite IH; reflexivity.
Qed.

Lemma zafter_app z l1 l2 : zafter z (l1 ++ l2) = zafter (zafter z l1) l2.
Proof. revert z. induction l1 as [|b t IH]; intros z; [reflexivity|]. cbn [app zafter]. apply IH. Qed.

Lemma emit_all_app esc z out l1 l2 :
  emit_all esc z out (l1 ++ l2) =
  let '(z1, o1) := emit_all esc z out l1 in emit_all esc z1 o1 l2.
Proof.
  revert z out. induction l1 as [|b t IH]; intros z out; [reflexivity|].
  cbn [app emit_all]. destruct (emit_byte esc b z out) as [z' o']. apply IH.
Qed.

(* ------------------------------------------------------------------ the drain loop *)
Lemma drain_spec esc fuel : forall T V z out,
  drain esc fuel V (N.of_nat T) z out =
  let '(bs, r) := chunk8 fuel (bits_of T V) in
  let '(z', o') := emit_all esc z out bs in
  (N.of_nat (length r), z', o').
Proof.
  induction fuel as [|f IH]; intros T V z out.
  - cbn [drain chunk8 emit_all]. rewrite bits_of_length. reflexivity.
  - cbn [drain chunk8]. rewrite bits_of_length.
    destruct (Nat.leb_spec 8 T) as [H8|H8].
    + destruct (N.leb_spec 8 (N.of_nat T)) as [_|Hc]; [|lia].
      assert (HT : T = (8 + (T - 8))%nat) by lia.
      set (T' := (T - 8)%nat) in *.
      assert (Hb : N.land (N.shiftr V (N.of_nat T - 8)) 255 = val_of (firstn 8 (bits_of T V))).
      { rewrite HT at 2. rewrite firstn_bits_of, val_of_bits_of.
        change (2 ^ N.of_nat 8) with 256. rewrite land_255.
        replace (N.of_nat T - 8) with (N.of_nat T') by lia. reflexivity. }
      rewrite Hb.
      assert (Hs : skipn 8 (bits_of T V) = bits_of T' V).
      { rewrite HT at 1. apply skipn_bits_of. }
      rewrite Hs.
      destruct (emit_byte esc (val_of (firstn 8 (bits_of T V))) z out) as [z1 o1] eqn:Ee.
      replace (N.of_nat T - 8) with (N.of_nat T') by lia.
      rewrite IH.
      destruct (chunk8 f (bits_of T' V)) as [bs r]. cbn [emit_all]. rewrite Ee. reflexivity.
    + destruct (N.leb_spec 8 (N.of_nat T)) as [Hc|_]; [lia|].
      cbn [emit_all]. rewrite bits_of_length. reflexivity.
Qed.

Lemma chunk8_pending fuel T V :
  snd (chunk8 fuel (bits_of T V)) = bits_of (length (snd (chunk8 fuel (bits_of T V)))) V.
Proof.
  revert T. induction fuel as [|f IH]; intros T; cbn [chunk8].
  - cbn [snd]. rewrite bits_of_length. reflexivity.
  - rewrite bits_of_length. destruct (Nat.leb_spec 8 T) as [H8|H8].
    + assert (HT : T = (8 + (T - 8))%nat) by lia.
      assert (Hs : skipn 8 (bits_of T V) = bits_of (T - 8) V) by (rewrite HT at 1; apply skipn_bits_of).
      rewrite Hs.
      specialize (IH (T - 8)%nat). destruct (chunk8 f (bits_of (T - 8) V)) as [bs r]. exact IH.
    + cbn [snd]. rewrite bits_of_length. reflexivity.
Qed.

(* ------------------------------------------------------------------ one Write call *)
(* the accumulator after `v <<= n; v |= bits & Mask(n)` holds the old pending bits followed
   by the n new bits, as long as everything fits in 64 bits *)
Lemma write_acc_bits wn0 wv0 bits n :
  (wn0 + n <= 64)%nat ->
  bits_of (wn0 + n)
    (N.lor (u64 (N.shiftl wv0 (N.of_nat n))) (N.land bits (N.ones (N.of_nat n))))
  = bits_of wn0 wv0 ++ bits_of n bits.
Proof.
  intros Hfit. apply bits_of_app_ext.
  - intros i Hi. rewrite N.lor_spec, N.land_spec, N.ones_spec_low by lia.
    unfold u64. change 18446744073709551616 with (2 ^ 64).
    rewrite N.mod_pow2_bits_low by lia. rewrite N.shiftl_spec_low by lia.
    cbn [orb]. apply andb_true_r.
  - intros i Hi. rewrite N.lor_spec, N.land_spec, N.ones_spec_high by lia.
    unfold u64. change 18446744073709551616 with (2 ^ 64).
    rewrite N.mod_pow2_bits_low by lia. rewrite N.shiftl_spec_high' by lia.
    rewrite andb_false_r, orb_false_r. f_equal. lia.
Qed.

(* Writer invariant: fewer than 8 pending bits; the bytes written so far are the escaping
   (or, without emulation prevention, the verbatim copy) of `raw`; the zero-run counter is
   the escape state after `raw`. *)
Definition WInv (esc : bool) (s : wstate) (raw : list N) : Prop :=
  wn s < 8 /\ Forall (fun b => b < 256) raw /\
  (if esc then wrev s = rev (escape raw) /\ wnr0 s = zafter 0 raw else wrev s = rev raw).

Definition pending (s : wstate) : list bool := bits_of (N.to_nat (wn s)) (wv s).

Lemma WInv_init esc : WInv esc winit [].
Proof. unfold WInv, winit; cbn. destruct esc; repeat split; try lia; constructor. Qed.

(* Write drains the whole bytes of the wn + n low bits of the accumulator and keeps the rest
   pending, whatever those bits are (write_acc_bits says what they are when nothing is lost) *)
Lemma write_gen_drains esc s raw bits n :
  WInv esc s raw ->
  exists added,
    Forall (fun b => b < 256) added /\
    WInv esc (write_gen esc s bits n) (raw ++ added) /\
    bytes_to_bits added ++ pending (write_gen esc s bits n)
    = bits_of (N.to_nat (wn s) + N.to_nat n)
        (N.lor (u64 (N.shiftl (wv s) n)) (N.land bits (N.ones n))).
Proof.
  intros [Hn [Hraw Hout]].
  unfold write_gen.
  set (V := N.lor (u64 (N.shiftl (wv s) n)) (N.land bits (N.ones n))).
  set (T := (N.to_nat (wn s) + N.to_nat n)%nat).
  replace (wn s + n) with (N.of_nat T) by lia.
  set (fuel := S (N.to_nat (N.of_nat T / 8))).
  rewrite drain_spec.
  pose proof (chunk8_concat fuel (bits_of T V)) as Hcat.
  pose proof (chunk8_rest_short fuel (bits_of T V)) as Hshort.
  pose proof (chunk8_pending fuel T V) as Hpend.
  pose proof (chunk8_bytes_lt fuel (bits_of T V)) as Hlt.
  destruct (chunk8 fuel (bits_of T V)) as [bs r]. cbn [fst snd] in *.
  assert (Hr : (length r < 8)%nat).
  { apply Hshort. rewrite bits_of_length. unfold fuel.
    pose proof (N.mod_lt (N.of_nat T) 8 ltac:(lia)).
    pose proof (N.div_mod (N.of_nat T) 8 ltac:(lia)). lia. }
  destruct (emit_all esc (wnr0 s) (wrev s) bs) as [z' o'] eqn:Ee.
  exists bs. split; [exact Hlt|]. split.
  - unfold WInv. cbn [wn wrev wnr0]. split; [lia|]. split; [apply Forall_app; split; assumption|].
    destruct esc.
    + destruct Hout as [Ho Hz]. rewrite emit_all_esc in Ee. inversion Ee; subst z' o'.
      rewrite Ho, Hz. unfold escape. rewrite escape_from_app, rev_app_distr, zafter_app. split; reflexivity.
    + pose proof (emit_all_plain (wnr0 s) (wrev s) bs) as Hp. rewrite Ee in Hp. cbn [snd] in Hp.
      rewrite Hp, Hout, rev_app_distr. reflexivity.
  - unfold pending. cbn [wn wv]. rewrite Nat2N.id, land_255.
    change 256 with (2 ^ 8). rewrite bits_of_mod_le by lia. rewrite <- Hpend. exact Hcat.
Qed.

(* nothing is lost as long as the pending bits and the new ones fit the accumulator together *)
Lemma write_gen_fit esc s raw bits n :
  WInv esc s raw -> wn s + n <= 64 ->
  exists raw',
    WInv esc (write_gen esc s bits n) raw' /\
    bytes_to_bits raw' ++ pending (write_gen esc s bits n)
    = bytes_to_bits raw ++ pending s ++ bits_of (N.to_nat n) bits /\
    exists added, raw' = raw ++ added /\ Forall (fun b => b < 256) added.
Proof.
  intros HI Hfit. destruct (write_gen_drains esc s raw bits n HI) as [added [Hlt [HI' Hb]]].
  exists (raw ++ added). split; [exact HI'|]. split; [|exists added; split; [reflexivity|exact Hlt]].
  rewrite bytes_to_bits_app, <- app_assoc, Hb. f_equal.
  pose proof (write_acc_bits (N.to_nat (wn s)) (wv s) bits (N.to_nat n) ltac:(lia)) as Hacc.
  rewrite N2Nat.id in Hacc. exact Hacc.
Qed.

Lemma write_gen_spec esc s raw bits n :
  WInv esc s raw -> n <= 56 ->
  exists raw',
    WInv esc (write_gen esc s bits n) raw' /\
    bytes_to_bits raw' ++ pending (write_gen esc s bits n)
    = bytes_to_bits raw ++ pending s ++ bits_of (N.to_nat n) bits /\
    exists added, raw' = raw ++ added /\ Forall (fun b => b < 256) added.
Proof. intros HI Hn. apply write_gen_fit; [exact HI|]. destruct HI as [H8 _]. lia. Qed.

(* ------------------------------------------------------------------ Exp-Golomb prefix loop *)
Lemma ue_loop_spec fuel : forall nr p,
  2 ^ p <= nr + 1 -> nr + 1 < 2 ^ (p + N.of_nat fuel) ->
  exists q, ue_loop fuel nr (2 ^ p - 1) p (2 ^ (p + 1) - 2) = (q, nr + 1 - 2 ^ q)
            /\ 2 ^ q <= nr + 1 < 2 ^ (q + 1).
Proof.
  induction fuel as [|f IH]; intros nr p Hlo Hhi.
  - replace (p + N.of_nat 0) with p in Hhi by lia. lia.
  - cbn [ue_loop].
    assert (Hp : 0 < 2 ^ p) by (apply pow2_pos).
    assert (Hp1 : 2 ^ (p + 1) = 2 * 2 ^ p) by (rewrite N.pow_add_r, N.pow_1_r; lia).
    destruct (N.leb_spec nr (2 ^ (p + 1) - 2)) as [Hle|Hgt].
    + exists p. split; [f_equal; lia|]. lia.
    + rewrite N.shiftl_1_l, N.shiftl_1_l.
      replace (2 ^ p - 1 + 2 ^ p) with (2 ^ (p + 1) - 1) by lia.
      assert (Hp2 : 2 ^ (p + 1 + 1) = 2 * 2 ^ (p + 1)) by (rewrite (N.pow_add_r 2 (p+1) 1), N.pow_1_r; lia).
      replace (2 ^ (p + 1) - 1 + 2 ^ (p + 1) - 1) with (2 ^ (p + 1 + 1) - 2) by lia.
      apply IH; [lia|].
      replace (p + 1 + N.of_nat f) with (p + N.of_nat (S f)) by lia. exact Hhi.
Qed.

Definition ue_code (v : N) : list bool :=
  let q := N.to_nat (N.log2 (v + 1)) in repeat false q ++ bits_of (S q) (v + 1).

Lemma bits_of_one_hot p : bits_of (S p) 1 = repeat false p ++ [true].
Proof.
  induction p as [|p IH]; [reflexivity|].
  change (bits_of (S (S p)) 1) with (N.testbit 1 (N.of_nat (S p)) :: bits_of (S p) 1).
  rewrite IH. cbn [repeat app]. f_equal.
Qed.

Lemma ue_code_alt v q :
  2 ^ N.of_nat q <= v + 1 < 2 ^ (N.of_nat q + 1) ->
  ue_code v = (repeat false q ++ [true]) ++ bits_of q (v + 1 - 2 ^ N.of_nat q).
Proof.
  intros H. unfold ue_code.
  replace (N.log2 (v + 1)) with (N.of_nat q).
  2:{ symmetry. apply N.log2_unique; [lia|]. rewrite <- N.add_1_r. exact H. }
  rewrite Nat2N.id, <- app_assoc, (bits_of_top q) by exact H. reflexivity.
Qed.

(* ------------------------------------------------------------------ every writer op *)
(* bits appended by an op, given the stream so far (stuffing depends on alignment) *)
Definition align_zeros (cur : list bool) : list bool :=
  repeat false ((8 - length cur mod 8) mod 8).

Definition sei_code (v : N) : list bool :=
  concat (repeat (bits_of 8 255) (N.to_nat (v / 255))) ++ bits_of 8 (v mod 255).

Definition op_bits (cur : list bool) (o : wop) : list bool :=
  match o with
  | WBits v w => bits_of (N.to_nat w) v
  | WFlag b => [b]
  | WUe v => ue_code v
  | WSe k => ue_code (se_to_ue k)
  | WSei v => sei_code v
  | WTrail => true :: align_zeros (cur ++ [true])
  | WStuff => align_zeros cur
  | WFlush => []
  end.

Definition op_ok (o : wop) : bool :=
  match o with
  | WBits _ w => w <=? 56
  | WUe v => v <? 2 ^ 32
  | WSe k => se_to_ue k <? 2 ^ 32
  | WFlush => false
  | _ => true
  end.

Definition all_bits (ops : list wop) : list bool :=
  fold_left (fun cur o => cur ++ op_bits cur o) ops [].

(* state after op, as a relation to the stream *)
Definition WStream (s : wstate) (cur : list bool) : Prop :=
  exists raw, WInv true s raw /\ bytes_to_bits raw ++ pending s = cur.

Lemma write_stream_fit s cur bits n :
  WStream s cur -> wn s + n <= 64 -> WStream (write s bits n) (cur ++ bits_of (N.to_nat n) bits).
Proof.
  intros [raw [HI Hc]] Hn.
  destruct (write_gen_fit true s raw bits n HI Hn) as [raw' [HI' [Hs _]]].
  exists raw'. split; [exact HI'|]. unfold write. rewrite Hs, <- Hc, <- app_assoc. reflexivity.
Qed.

Lemma WStream_wn s cur : WStream s cur -> wn s < 8.
Proof. intros [raw [[H _] _]]. exact H. Qed.

Lemma write_stream s cur bits n :
  WStream s cur -> n <= 56 -> WStream (write s bits n) (cur ++ bits_of (N.to_nat n) bits).
Proof. intros HS Hn. apply write_stream_fit; [exact HS|]. apply WStream_wn in HS. lia. Qed.

Lemma WStream_pending_len s cur : WStream s cur -> N.of_nat (length cur mod 8) = wn s.
Proof.
  intros [raw [[Hn _] Hc]]. subst cur. rewrite app_length, bytes_to_bits_length.
  unfold pending. rewrite bits_of_length.
  rewrite Nat.add_comm, Nat.mul_comm, Nat.mod_add by lia.
  rewrite Nat.mod_small by lia. lia.
Qed.

(* the two writes of WriteExpGolomb carry q + 1 and q bits, q = floor(log2(v + 1)): exact up to q = 56 *)
Lemma write_ue_code s cur v :
  WStream s cur -> v + 1 < 2 ^ 57 -> WStream (write_ue s v) (cur ++ ue_code v).
Proof.
  intros HS Hv. pose proof (WStream_wn s cur HS) as H8. unfold write_ue.
  destruct (ue_loop_spec 64 v 0) as [q [Hq Hb]]; [rewrite N.pow_0_r; lia|change (0 + N.of_nat 64) with 64; lia|].
  change (2 ^ 0 - 1) with 0 in Hq. change (2 ^ (0 + 1) - 2) with 0 in Hq. rewrite Hq.
  assert (Hq57 : q < 57) by (apply (N.pow_lt_mono_r_iff 2); lia).
  rewrite (ue_code_alt v (N.to_nat q)) by (rewrite N2Nat.id; exact Hb).
  rewrite N2Nat.id, <- app_assoc.
  pose proof (write_stream_fit s cur 1 (q + 1) HS ltac:(lia)) as H1.
  replace (N.to_nat (q + 1)) with (S (N.to_nat q)) in H1 by lia.
  rewrite bits_of_one_hot in H1.
  destruct (N.ltb_spec 0 q) as [Hpos|Hz].
  - pose proof (write_stream_fit _ _ (v + 1 - 2 ^ q) q H1 ltac:(apply WStream_wn in H1; lia)) as H2.
    rewrite <- !app_assoc in H2. exact H2.
  - assert (q = 0) by lia. subst q. cbn [N.to_nat bits_of]. rewrite app_nil_r. exact H1.
Qed.

Lemma write_ue_stream s cur v :
  WStream s cur -> v < 2 ^ 32 -> WStream (write_ue s v) (cur ++ ue_code v).
Proof. intros HS Hv. apply write_ue_code; [exact HS|lia]. Qed.

Lemma sei_code_step v : 255 <= v -> sei_code v = bits_of 8 255 ++ sei_code (v - 255).
Proof.
  intros H. unfold sei_code.
  replace v with ((v - 255) + 1 * 255) at 1 2 by lia. rewrite N.div_add, N.mod_add by lia.
  rewrite N.add_1_r, N2Nat.inj_succ. cbn [repeat concat]. apply app_assoc_reverse.
Qed.

Lemma write_sei_value_stream fuel : forall s cur v,
  WStream s cur -> (N.to_nat (v / 255) < fuel)%nat ->
  WStream (write_sei_value_fuel fuel s v) (cur ++ sei_code v).
Proof.
  induction fuel as [|f IH]; intros s cur v HS Hf; [lia|].
  cbn [write_sei_value_fuel].
  destruct (N.leb_spec 255 v) as [Hge|Hlt].
  - rewrite (sei_code_step v Hge), app_assoc.
    apply IH; [exact (write_stream s cur 255 8 HS ltac:(lia))|].
    replace v with ((v - 255) + 1 * 255) in Hf at 1 by lia. rewrite N.div_add in Hf by lia.
    set (d := (v - 255) / 255) in *. clearbody d. lia.
  - unfold sei_code. rewrite N.div_small, N.mod_small by lia. exact (write_stream s cur v 8 HS ltac:(lia)).
Qed.

Lemma stuff_zeros_stream s cur : WStream s cur -> WStream (stuff_zeros s) (cur ++ align_zeros cur).
Proof.
  intros HS. pose proof (WStream_pending_len s cur HS) as Hn.
  pose proof (WStream_wn s cur HS) as Hlt.
  unfold stuff_zeros, align_zeros.
  destruct (N.ltb_spec 0 (wn s)) as [Hpos|Hz].
  - pose proof (write_stream s cur 0 (8 - wn s) HS ltac:(lia)) as H1.
    replace ((8 - length cur mod 8) mod 8)%nat with (N.to_nat (8 - wn s)).
    2:{ rewrite Nat.mod_small; lia. }
    rewrite bits_of_0 in H1. exact H1.
  - replace ((8 - length cur mod 8) mod 8)%nat with 0%nat.
    2:{ assert (length cur mod 8 = 0)%nat by lia. rewrite H. reflexivity. }
    cbn [repeat]. rewrite app_nil_r. exact HS.
Qed.

(* the ops every call of which stays within the accumulator: widths up to 57 bits at any alignment,
   Exp-Golomb codes of up to 57 bits per half *)
Definition op_fits (o : wop) : Prop :=
  match o with
  | WBits _ w => w <= 57
  | WUe v => v + 1 < 2 ^ 57
  | WSe k => se_to_ue k + 1 < 2 ^ 57
  | WFlush => False
  | _ => True
  end.

Lemma op_ok_fits o : op_ok o = true -> op_fits o.
Proof. destruct o; cbn [op_ok op_fits]; lia. Qed.

Lemma wstep_stream_fits s cur o :
  WStream s cur -> op_fits o -> WStream (wstep s o) (cur ++ op_bits cur o).
Proof.
  intros HS Hok. pose proof (WStream_wn s cur HS) as H8.
  destruct o as [v w|b|v|k|v| | |]; cbn [wstep op_bits op_fits] in *.
  - apply write_stream_fit; [exact HS|lia].
  - pose proof (write_stream s cur (if b then 1 else 0) 1 HS ltac:(lia)) as H1.
    destruct b; exact H1.
  - apply write_ue_code; assumption.
  - apply write_ue_code; assumption.
  - unfold write_sei_value. apply write_sei_value_stream; [exact HS|lia].
  - unfold write_trailing.
    pose proof (write_stream s cur 1 1 HS ltac:(lia)) as H1. change (bits_of (N.to_nat 1) 1) with [true] in H1.
    pose proof (stuff_zeros_stream _ _ H1) as H2. rewrite <- app_assoc in H2. exact H2.
  - apply stuff_zeros_stream. exact HS.
  - contradiction.
Qed.

Lemma wstep_stream s cur o :
  WStream s cur -> op_ok o = true -> WStream (wstep s o) (cur ++ op_bits cur o).
Proof. intros HS Hok. apply wstep_stream_fits; [exact HS|apply op_ok_fits, Hok]. Qed.

Lemma forallb_Forall {A} (f : A -> bool) (P : A -> Prop) l :
  (forall x, f x = true -> P x) -> forallb f l = true -> Forall P l.
Proof. intros H Hl. apply Forall_forall. intros x Hx. apply H. exact (proj1 (forallb_forall f l) Hl x Hx). Qed.

Lemma run_stream_fits ops : forall s cur,
  WStream s cur -> Forall op_fits ops ->
  WStream (fold_left wstep ops s) (fold_left (fun cur o => cur ++ op_bits cur o) ops cur).
Proof.
  induction ops as [|o t IH]; intros s cur HS Hok; [exact HS|].
  inversion Hok; subst. cbn [fold_left]. apply IH; [|assumption]. apply wstep_stream_fits; assumption.
Qed.

Lemma run_writer_stream_from ops : forall s cur,
  WStream s cur -> forallb op_ok ops = true ->
  WStream (fold_left wstep ops s) (fold_left (fun cur o => cur ++ op_bits cur o) ops cur).
Proof. intros s cur HS Hok. apply run_stream_fits; [exact HS|exact (forallb_Forall _ _ _ op_ok_fits Hok)]. Qed.

Lemma WStream_init : WStream winit [].
Proof. exists []. split; [apply WInv_init|reflexivity]. Qed.

Lemma run_writer_stream ops :
  forallb op_ok ops = true -> WStream (run_writer ops) (all_bits ops).
Proof. intros Hok. apply run_writer_stream_from; [apply WStream_init|exact Hok]. Qed.

(* at a byte boundary the bytes written are exactly the escaping of the stream's bytes *)
Lemma WStream_aligned s cur :
  WStream s cur -> (length cur mod 8 = 0)%nat ->
  exists raw, wout s = escape raw /\ bytes_to_bits raw = cur /\ Forall (fun b => b < 256) raw
              /\ wn s = 0.
Proof.
  intros HS Hal. pose proof (WStream_pending_len s cur HS) as Hn. rewrite Hal in Hn.
  destruct HS as [raw [[Hn8 [Hraw [Ho Hz]]] Hc]].
  exists raw. unfold wout. rewrite Ho, rev_involutive.
  unfold pending in Hc. rewrite <- Hn in Hc. cbn [N.to_nat bits_of] in Hc. rewrite app_nil_r in Hc.
  repeat split; try assumption. lia.
Qed.

Lemma bytes_to_bits_inj l1 l2 :
  Forall (fun b => b < 256) l1 -> Forall (fun b => b < 256) l2 ->
  bytes_to_bits l1 = bytes_to_bits l2 -> l1 = l2.
Proof.
  revert l2. induction l1 as [|a t IH]; intros [|b u] H1 H2 E.
  - reflexivity.
  - apply (f_equal (@length bool)) in E. rewrite !bytes_to_bits_length in E. cbn in E. lia.
  - apply (f_equal (@length bool)) in E. rewrite !bytes_to_bits_length in E. cbn in E. lia.
  - unfold bytes_to_bits in E. cbn [flat_map] in E.
    inversion H1; subst. inversion H2; subst.
    pose proof (f_equal (firstn 8) E) as E1. pose proof (f_equal (skipn 8) E) as E2.
    rewrite !firstn_app_len in E1 by apply bits_of_length.
    rewrite !skipn_app_len in E2 by apply bits_of_length.
    f_equal; [apply (bits_of_inj 8)|apply IH]; assumption.
Qed.
