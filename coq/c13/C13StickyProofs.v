(* C13StickyProofs.v — the readers after the first error: every read returns the zero value and leaves the
   whole state (error, accumulator, counters) as it is; the read that runs into the end of the input has consumed
   every input byte.  Plus the integer-boundary behaviour of ReadSignedGolomb. *)
From V.lib Require Import Base.
From V.c13 Require Import C13Spec C13Model C13ModelExt.

Lemma read_gen_after_error esc s n : rerr s = true -> read_gen esc s n = (0, s).
Proof. intros H. unfold read_gen. rewrite H. reflexivity. Qed.

Lemma read_ue_after_error s : rerr s = true -> read_ue s = (0, s).
Proof. intros H. unfold read_ue. rewrite H. reflexivity. Qed.

Lemma read_bytes_after_error k : forall s, rerr s = true -> snd (read_bytes k s) = s.
Proof.
  induction k as [|k IH]; intros s H; cbn [read_bytes]; [reflexivity|].
  unfold read. rewrite (read_gen_after_error true s 8 H).
  specialize (IH s H). destruct (read_bytes k s) as [l s2]. cbn [snd] in *. exact IH.
Qed.

(* EBSPReader: Read, ReadFlag, ReadExpGolomb, ReadSignedGolomb, ReadBytes, MoreRbspData *)
Lemma rstep_after_error s o : rerr s = true -> rstep s o = (rzero o, s).
Proof.
  intros H. destruct o as [w| | | |k|]; cbn [rstep rzero].
  - unfold read. rewrite (read_gen_after_error true s w H). reflexivity.
  - unfold read_flag, read. rewrite (read_gen_after_error true s 1 H). reflexivity.
  - rewrite (read_ue_after_error s H). reflexivity.
  - unfold read_se. rewrite (read_ue_after_error s H). rewrite H. reflexivity.
  - pose proof (read_bytes_after_error k s H) as Hs.
    destruct (read_bytes k s) as [l s2]. cbn [snd] in Hs. subst s2. rewrite H. reflexivity.
  - unfold more_rbsp_data. rewrite H. reflexivity.
Qed.

Lemma read_trailing_after_error s : rerr s = true -> read_trailing s = Some (TNil, s).
Proof. intros H. unfold read_trailing. rewrite H. reflexivity. Qed.

Lemma read_se64_after_error s : rerr s = true -> read_se64 s = (0%Z, s).
Proof. intros H. unfold read_se64. rewrite (read_ue_after_error s H). rewrite H. reflexivity. Qed.

(* Reader: Read, ReadFlag, ReadSigned *)
Lemma read_flag_plain_after_error s : rerr s = true -> read_flag_plain s = (false, s).
Proof. intros H. unfold read_flag_plain, read_plain. rewrite (read_gen_after_error false s 1 H). rewrite H. reflexivity. Qed.

Lemma sext64_0 n : sext64 0 n = 0%Z.
Proof. unfold sext64. change (to_int64 0) with 0%Z. rewrite Z.shiftr_0_l. reflexivity. Qed.

Lemma read_signed64_after_error s n : rerr s = true -> n <> 0 -> read_signed64 s n = Some (0%Z, s).
Proof.
  intros H Hn. unfold read_signed64, read_plain. rewrite (read_gen_after_error false s n H).
  destruct (N.eqb_spec n 0) as [E|_]; [contradiction|]. rewrite sext64_0. reflexivity.
Qed.

Lemma sticky_run ops : forall s, rerr s = true -> run_reader ops s = (map rzero ops, s).
Proof.
  induction ops as [|o t IH]; intros s H; cbn [run_reader map]; [reflexivity|].
  rewrite (rstep_after_error s o H), (IH s H). reflexivity.
Qed.

(* ------------------------------------------------------------------ where the failing read stops *)
Lemma fill_pos esc fuel : forall s n,
  rpos s <= N.of_nat (length (rdata s)) ->
  let s1 := fill esc fuel s n in
  rdata s1 = rdata s /\ rpos s1 <= N.of_nat (length (rdata s)) /\
  (rerr s = false -> rerr s1 = true -> rpos s1 = N.of_nat (length (rdata s))).
Proof.
  induction fuel as [|f IH]; intros s n Hp; cbn [fill].
  - cbv zeta. split; [reflexivity|]. split; [exact Hp|]. congruence.
  - destruct (rn s <? n).
    2:{ cbv zeta. split; [reflexivity|]. split; [exact Hp|]. congruence. }
    unfold byte_at.
    destruct (nth_error (rdata s) (N.to_nat (rpos s))) as [b|] eqn:Eb.
    + assert (Hlt : (N.to_nat (rpos s) < length (rdata s))%nat) by (apply nth_error_Some; congruence).
      destruct (esc && (rzc s =? 2) && (b =? 3)).
      * destruct (nth_error (rdata s) (N.to_nat (rpos s + 1))) as [b'|] eqn:Eb'.
        -- assert (Hlt' : (N.to_nat (rpos s + 1) < length (rdata s))%nat) by (apply nth_error_Some; congruence).
           match goal with |- context [fill esc f ?s2 n] =>
             destruct (IH s2 n) as [H1 [H2 H3]]; [cbn [rpos rdata]; lia|] end.
           cbn [rdata rerr] in *. cbv zeta. split; [exact H1|]. split; [exact H2|]. intros _. exact (H3 eq_refl).
        -- apply nth_error_None in Eb'. cbv zeta. cbn [rdata rpos rerr].
           split; [reflexivity|]. split; [lia|]. intros _ _. lia.
      * match goal with |- context [fill esc f ?s2 n] =>
          destruct (IH s2 n) as [H1 [H2 H3]]; [cbn [rpos rdata]; lia|] end.
        cbn [rdata rerr] in *. cbv zeta. split; [exact H1|]. split; [exact H2|]. intros _. exact (H3 eq_refl).
    + apply nth_error_None in Eb. cbv zeta. cbn [rdata rpos rerr].
      split; [reflexivity|]. split; [exact Hp|]. intros _ _. lia.
Qed.

(* a Read that fails returns 0, sets the error and has consumed the whole input: NrBytesRead = len(data) *)
Lemma read_eof_position esc s n :
  rerr s = false -> rpos s <= N.of_nat (length (rdata s)) ->
  rerr (snd (read_gen esc s n)) = true ->
  fst (read_gen esc s n) = 0 /\ nr_bytes_read (snd (read_gen esc s n)) = N.of_nat (length (rdata s))
  /\ rdata (snd (read_gen esc s n)) = rdata s.
Proof.
  intros He Hp. unfold read_gen. rewrite He.
  destruct (fill_pos esc (S (N.to_nat (n / 8) + 1)) s n Hp) as [H1 [H2 H3]].
  destruct (rerr (fill esc (S (N.to_nat (n / 8) + 1)) s n)) eqn:E; cbn [fst snd].
  - intros _. split; [reflexivity|]. split; [apply H3; [exact He|reflexivity]|exact H1].
  - cbn [rerr]. discriminate.
Qed.

(* every Read keeps the position within the input *)
Lemma read_gen_pos_le esc s n :
  rpos s <= N.of_nat (length (rdata s)) ->
  rpos (snd (read_gen esc s n)) <= N.of_nat (length (rdata s)) /\ rdata (snd (read_gen esc s n)) = rdata s.
Proof.
  intros Hp. unfold read_gen. destruct (rerr s); [split; [exact Hp|reflexivity]|].
  destruct (fill_pos esc (S (N.to_nat (n / 8) + 1)) s n Hp) as [H1 [H2 _]].
  destruct (rerr (fill esc (S (N.to_nat (n / 8) + 1)) s n)); cbn [snd rpos rdata]; split; assumption.
Qed.

Lemma read_pos_le esc s n :
  rerr s = false -> rpos s <= N.of_nat (length (rdata s)) ->
  rpos (snd (read_gen esc s n)) <= N.of_nat (length (rdata s)) /\ rdata (snd (read_gen esc s n)) = rdata s.
Proof. intros _. apply read_gen_pos_le. Qed.

(* ------------------------------------------------------------------ ReadSignedGolomb at the uint boundary *)
Lemma read_se64_eq s : fst (read_ue s) < 18446744073709551615 -> read_se64 s = read_se s.
Proof.
  unfold read_se64, read_se. destruct (read_ue s) as [u s1]. cbn [fst]. intros Hu.
  unfold u64. rewrite (N.mod_small (u + 1)) by lia. reflexivity.
Qed.

(* 64 zero bits, a one, 64 zero bits: codeNum 2^64 - 1; Go computes (codeNum + 1) / 2 in uint and returns 0 *)
Definition se_boundary_stream : list N := [0;0;0;0;0;0;0;0;128;0;0;0;0;0;0;0;0].
Lemma se_boundary :
  fst (read_ue (rinit se_boundary_stream)) = 18446744073709551615 /\
  fst (read_se64 (rinit se_boundary_stream)) = 0%Z /\
  rerr (snd (read_se64 (rinit se_boundary_stream))) = false.
Proof. vm_compute. repeat split. Qed.
