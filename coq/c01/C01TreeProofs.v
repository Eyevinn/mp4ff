(* C01TreeProofs.v — header round trip and the tree theorem: every slice accepted by the model of
   DecodeBoxSR whose decoded tree is `exact` is reproduced byte for byte by the encoders when the captured
   reserved bytes are put back.  Parametric in the leaf table (leaf_table_ok). *)
From V.lib Require Import Base.
From V.c01 Require Import C01Codec C01Model C01LeafProofs C01EsdsProofs C01TableProofs.

Lemma bytes_eqb_eq x y : bytes_eqb x y = true -> x = y.
Proof. exact (bytes_eqb_eq0 x y). Qed.

Lemma bytes_eqb_refl x : bytes_eqb x x = true.
Proof. induction x as [|a x IH]; [reflexivity|]. cbn [bytes_eqb]. now rewrite N.eqb_refl, IH. Qed.

Lemma lookup_in {A} n t (a : A) : lookup n t = Some a -> exists k, In (k, a) t /\ n = k.
Proof.
  induction t as [|[k a'] t IH]; cbn [lookup]; [discriminate|].
  destruct (bytes_eqb n k) eqn:E.
  - intros H. injection H as <-. exists k. split; [now left|now apply bytes_eqb_eq].
  - intros H. destruct (IH H) as (k' & Hin & Hk). exists k'. split; [now right|assumption].
Qed.

(* the dispatch of DecodeMetaSR: an entry found by pre_lookup is an entry of pre_table *)
Lemma pre_lookup_some h r x : pre_lookup h r = Some x -> lookup (h_name h) pre_table = Some x.
Proof. unfold pre_lookup. destruct (meta_qt h r); [discriminate|trivial]. Qed.

(* ---------------------------------------------------------------- header *)
Lemma dec_hdr_spec bs h r : bytes_ok bs = true -> dec_hdr bs = Ok (h, r) ->
  bytes_ok r = true /\ h_len h <= h_size h /\
  ((h_len h = 8 /\ bs = enc_hdr (h_name h) (h_size h) ++ r) \/
   (h_len h = 16 /\ bs = enc_hdr_large (h_name h) (h_size h) ++ r)).
Proof.
  intros Hok H. unfold dec_hdr in H. run H; inj_pret H; cbn [h_len h_size h_name].
  - split; [assumption|]. apply N.ltb_ge in Hc0. split; [assumption|]. right. split; [reflexivity|].
    apply N.eqb_eq in Hc. subst. unfold enc_hdr_large. repeat rewrite <- app_assoc. reflexivity.
  - split; [assumption|]. apply N.ltb_ge in Hc1. split; [assumption|]. left. split; [reflexivity|].
    unfold enc_hdr. repeat rewrite <- app_assoc. reflexivity.
Qed.

(* printing a compact header and reading it back *)
Lemma header_rt name sz r :
  lenN name = 4 -> 8 <= sz < 4294967296 ->
  dec_hdr (enc_hdr name sz ++ r) = Ok (mkHdr name sz 8, r).
Proof.
  intros Hn [Hlo Hhi]. unfold dec_hdr, enc_hdr, pbind. rewrite <- app_assoc.
  rewrite rd_enc by (change (256 ^ N.of_nat 4) with 4294967296; lia).
  rewrite <- Hn, rdB_app.
  replace (sz =? 1) with false by (symmetry; apply N.eqb_neq; lia).
  replace (sz =? 0) with false by (symmetry; apply N.eqb_neq; lia).
  replace (sz <? 8) with false by (symmetry; apply N.ltb_ge; lia).
  reflexivity.
Qed.

(* a large-size header decodes to the same (name, size) with header length 16 *)
Lemma header_large name sz r :
  lenN name = 4 -> 16 <= sz < 18446744073709551616 ->
  dec_hdr (enc_hdr_large name sz ++ r) = Ok (mkHdr name sz 16, r).
Proof.
  intros Hn [Hlo Hhi]. unfold dec_hdr, enc_hdr_large, pbind. repeat rewrite <- app_assoc.
  rewrite rd_enc by (change (256 ^ N.of_nat 4) with 4294967296; lia).
  rewrite <- Hn, rdB_app. cbn [N.eqb Pos.eqb].
  rewrite rd_enc by (change (256 ^ N.of_nat 8) with 18446744073709551616; lia).
  replace (sz <? 16) with false by (symmetry; apply N.ltb_ge; lia).
  reflexivity.
Qed.

(* ---------------------------------------------------------------- moov child order *)
Lemma moov_stable_id {A} (f : A -> bool) cs : forall acc,
  moov_stable_from f acc cs = true -> fold_left (moov_add f) cs acc = acc ++ cs.
Proof.
  induction cs as [|c t IH]; intros acc H; cbn [fold_left moov_stable_from] in *.
  - now rewrite app_nil_r.
  - apply andb_true_iff in H. destruct H as [H1 H2]. apply negb_true_iff in H1.
    unfold moov_add at 2. rewrite H1. rewrite (IH _ H2). now rewrite <- app_assoc.
Qed.

Section MapStable.
  Context {A B : Type} (fa : A -> bool) (g : A -> bool * B) (Hg : forall a, fst (g a) = fa a).

  Lemma last_trak_idx_map cs : forall i acc,
    last_trak_idx fst (map g cs) i acc = last_trak_idx fa cs i acc.
  Proof.
    induction cs as [|c t IH]; intros i acc; cbn [map last_trak_idx]; [reflexivity|].
    now rewrite Hg, IH.
  Qed.

  Lemma moov_cond_map acc c : moov_cond fst (map g acc) (g c) = moov_cond fa acc c.
  Proof. unfold moov_cond. now rewrite Hg, last_trak_idx_map, map_length. Qed.

  Lemma moov_stable_map cs : forall acc,
    moov_stable_from fst (map g acc) (map g cs) = moov_stable_from fa acc cs.
  Proof.
    induction cs as [|c t IH]; intros acc; cbn [map moov_stable_from]; [reflexivity|].
    rewrite moov_cond_map. f_equal. rewrite <- IH. now rewrite map_app.
  Qed.
End MapStable.

(* ---------------------------------------------------------------- the tree *)
Definition genc (keep : bool) (c : mbox) : bool * res (list N) := (is_trak_box c, raw_box keep c).
Definition cat_encs (l : list (bool * res (list N))) : res (list N) :=
  fold_right (fun e acc => rcat (snd e) acc) (Ok []) l.

Lemma cat_encs_cons keep c cs x y : raw_box keep c = Ok x -> cat_encs (map (genc keep) cs) = Ok y ->
  cat_encs (map (genc keep) (c :: cs)) = Ok (x ++ y).
Proof. intros Hx Hy. cbn [map cat_encs fold_right genc snd]. fold (cat_encs (map (genc keep) cs)). now rewrite Hx, Hy. Qed.

Lemma raw_box_cont keep h cs :
  raw_box keep (MCont h cs) =
  (let encs := map (genc keep) cs in
   let encs' := if bytes_eqb (h_name h) n_moov then moov_order fst encs else encs in
   let all := rcat (Ok (enc_hdr (h_name h) (8 + sumN (map size_box cs)))) (cat_encs encs') in
   if bytes_eqb (h_name h) n_moof then
     match moof_pre cs with Ok _ => all | Err => Err | Panic => Panic | OutOfFuel => OutOfFuel end
   else all).
Proof. reflexivity. Qed.

(* the children of an MPre box are written one after the other *)
Lemma pre_body_cat keep cs :
  fold_right (fun c acc => rcat (raw_box keep c) acc) (Ok []) cs = cat_encs (map (genc keep) cs).
Proof. induction cs as [|c t IH]; [reflexivity|]. cbn [fold_right map cat_encs genc snd]. now rewrite IH. Qed.

Lemma raw_box_pre keep h l r cs :
  raw_box keep (MPre h l r cs) =
  rcat (Ok (enc_hdr (leaf_name l) (size_leaf l + sumN (map size_box cs))))
       (rcat (body_leaf l (if keep then r else dflt_rsv l)) (cat_encs (map (genc keep) cs))).
Proof. cbn [raw_box]. now rewrite pre_body_cat. Qed.

(* ---------------------------------------------------------------- what exact_box says, kind by kind *)
Lemma exact_leaf h l r : exact_box (MLeaf h l r) = true ->
  h_len h = (if leaf_large l then 16 else 8) /\ h_size h = size_leaf l /\ leaf_guard l = true.
Proof.
  cbn [exact_box]. unfold hdr_exact. destruct (leaf_large l); rewrite !andb_true_iff, !N.eqb_eq; intros [[H1 H2] Hg]; now repeat split.
Qed.

Lemma exact_pre h l r cs : exact_box (MPre h l r cs) = true ->
  h_len h = 8 /\ h_size h = size_leaf l + sumN (map size_box cs) /\ leaf_guard l = true /\ forallb exact_box cs = true.
Proof. cbn [exact_box]. unfold hdr_exact. rewrite !andb_true_iff, !N.eqb_eq. intros [[[H1 H2] Hg] Hcs]. now repeat split. Qed.

Lemma exact_cont h cs : exact_box (MCont h cs) = true -> h_len h = 8 /\ forallb exact_box cs = true.
Proof. cbn [exact_box]. rewrite !andb_true_iff, N.eqb_eq. now intros [[[H1 H2] _] _]. Qed.

(* an exact container is written header first, then its children in the order they were read: AddChild moved no
   trak of a moov, and no trun of a moof lacks its data offset *)
Lemma raw_cont_exact keep h cs : exact_box (MCont h cs) = true ->
  raw_box keep (MCont h cs) = rcat (Ok (enc_hdr (h_name h) (8 + sumN (map size_box cs)))) (cat_encs (map (genc keep) cs)).
Proof.
  cbn [exact_box]. rewrite !andb_true_iff. intros [[_ Hmoov] Hmoof]. rewrite raw_box_cont. cbv zeta.
  replace (if bytes_eqb (h_name h) n_moov then moov_order fst (map (genc keep) cs) else map (genc keep) cs)
    with (map (genc keep) cs).
  - destruct (bytes_eqb (h_name h) n_moof); [|reflexivity]. cbn [negb orb] in Hmoof. now destruct (moof_pre cs).
  - destruct (bytes_eqb (h_name h) n_moov); [|reflexivity]. cbn [negb orb] in Hmoov.
    unfold moov_order. rewrite moov_stable_id; [reflexivity|].
    change (@nil (bool * res (list N))) with (map (genc keep) []).
    now rewrite (moov_stable_map is_trak_box (genc keep)).
Qed.

(* ---------------------------------------------------------------- the dispatch of DecodeBoxSR, inverted *)
(* the children of a box with a field prefix, read by the loop its table entry names *)
Inductive kids (f : nat) (h : hdr) (l : leaf) (r1 : list N) (cs : list mbox) (r' : list N) : loopkind -> Prop :=
| KStrict off : h_size h <? off = false -> decode_children f (h_size h - off) 0 0 r1 = Ok (cs, r') ->
    pre_count_ok l (lenN cs) = true -> kids f h l r1 cs r' (PStrict off)
| KEntry start : decode_entries f (h_size h) start r1 = Ok (cs, r') -> kids f h l r1 cs r' (PEntry start).

(* the successful runs behind the header h, on the slice r that follows it: one constructor per branch *)
Inductive dispatch (f : nat) (h : hdr) (r : list N) : mbox -> list N -> Prop :=
| DLeaf d l rsv r' : lookup (h_name h) leaf_table = Some d -> d h r = Ok ((l, rsv), r') ->
    dispatch f h r (MLeaf h l rsv) r'
| DPre d lk l rsv r1 cs r' : lookup (h_name h) leaf_table = None -> pre_lookup h r = Some (d, lk) ->
    d h r = Ok ((l, rsv), r1) -> kids f h l r1 cs r' lk -> dispatch f h r (MPre h l rsv cs) r'
| DCont cs r' : lookup (h_name h) leaf_table = None -> pre_lookup h r = None -> cont_like h r = true ->
    decode_children f (h_size h - 8) 0 0 r = Ok (cs, r') -> bytes_eqb (h_name h) n_edts && negb (edts_ok cs) = false ->
    dispatch f h r (MCont h cs) r'
| DUnknown p r' : lookup (h_name h) leaf_table = None -> pre_lookup h r = None -> cont_like h r = false ->
    rdB (payload_len h) r = Ok (p, r') -> dispatch f h r (MUnknown h p) r'.

Lemma decode_box_S f bs t rest : decode_box (S f) bs = Ok (t, rest) <->
  exists h r, dec_hdr bs = Ok (h, r) /\
    (lenN r + h_len h <? h_size h) && negb (bytes_eqb (h_name h) n_mdat) = false /\ dispatch f h r t rest.
Proof.
  cbn [decode_box]. split.
  - intros H. destruct (dec_hdr bs) as [[h r]| | |]; try discriminate. exists h, r. split; [reflexivity|].
    destruct (_ && _); [discriminate|]. split; [reflexivity|].
    destruct (lookup (h_name h) leaf_table) as [d|] eqn:El.
    { destruct (d h r) as [[[l rsv] r']| | |] eqn:Ed; try discriminate. injection H as <- <-. now apply (DLeaf _ _ _ d). }
    destruct (pre_lookup h r) as [[d lk]|] eqn:Ep.
    { destruct (d h r) as [[[l rsv] r1]| | |] eqn:Ed; try discriminate. destruct lk as [off|start].
      - destruct (h_size h <? off) eqn:Eo; [discriminate|].
        destruct (decode_children f (h_size h - off) 0 0 r1) as [[cs r']| | |] eqn:Ec; try discriminate.
        destruct (pre_count_ok l (lenN cs)) eqn:En; [|discriminate]. injection H as <- <-.
        apply (DPre _ _ _ d (PStrict off) _ _ r1); try assumption. now constructor.
      - destruct (decode_entries f (h_size h) start r1) as [[cs r']| | |] eqn:Ec; try discriminate. injection H as <- <-.
        apply (DPre _ _ _ d (PEntry start) _ _ r1); try assumption. now constructor. }
    destruct (cont_like h r) eqn:Ecl.
    + destruct (decode_children f (h_size h - 8) 0 0 r) as [[cs r']| | |] eqn:Ec; try discriminate.
      destruct (_ && _) eqn:Ee; [discriminate|]. injection H as <- <-. now apply DCont.
    + destruct (rdB (payload_len h) r) as [[p r']| | |] eqn:Eu; try discriminate. injection H as <- <-. now apply DUnknown.
  - intros (h & r & -> & -> & D). destruct D as [d l rsv r' -> ->|d lk l rsv r1 cs r' -> -> -> K|cs r' -> -> -> -> ->|p r' -> -> -> ->];
      try reflexivity.
    destruct K as [off -> -> ->|start ->]; reflexivity.
Qed.

Lemma lookup_Forall {A} (P : list N * A -> Prop) t n a : Forall P t -> lookup n t = Some a -> P (n, a).
Proof. intros HP H. destruct (lookup_in _ _ _ H) as (k & Hin & ->). exact (proj1 (Forall_forall _ _) HP _ Hin). Qed.

(* a decoded box has the name its header announced *)
Lemma decoded_name f h r t rest : dispatch f h r t rest -> box_name t = h_name h.
Proof.
  intros [d l rsv r' El Ed|d lk l rsv r1 cs r' _ Ep Ed _| |]; try reflexivity; cbn [box_name].
  - exact (proj2 (lookup_Forall _ _ _ _ leaf_table_ok El) _ _ _ _ _ eq_refl Ed).
  - exact (proj2 (lookup_Forall _ _ _ _ pre_table_ok (pre_lookup_some _ _ _ Ep)) _ _ _ _ _ eq_refl Ed).
Qed.

(* the header as the encoders write it back in the form it was read in *)
Definition hdr_bytes (h : hdr) : list N :=
  if 8 <? h_len h then enc_hdr_large (h_name h) (h_size h) else enc_hdr (h_name h) (h_size h).

Lemma dec_hdr_bytes bs h r : bytes_ok bs = true -> dec_hdr bs = Ok (h, r) -> bs = hdr_bytes h ++ r.
Proof. intros Hok H. destruct (dec_hdr_spec _ _ _ Hok H) as (_ & _ & [[Hl ->]|[Hl ->]]); unfold hdr_bytes; now rewrite Hl. Qed.

Lemma hdr_bytes_compact h : h_len h = 8 -> hdr_bytes h = enc_hdr (h_name h) (h_size h).
Proof. unfold hdr_bytes. now intros ->. Qed.

Lemma leaf_hdr_bytes h l : leaf_name l = h_name h -> h_len h = (if leaf_large l then 16 else 8) -> h_size h = size_leaf l ->
  leaf_hdr l = hdr_bytes h.
Proof. unfold leaf_hdr, hdr_bytes. intros -> -> ->. now destruct (leaf_large l). Qed.

Definition box_stmt (f : nat) : Prop :=
  forall bs t rest, bytes_ok bs = true -> decode_box f bs = Ok (t, rest) -> exact_box t = true ->
    exists enc, raw_box true t = Ok enc /\ bs = enc ++ rest /\ bytes_ok rest = true.

Definition children_stmt (f : nat) : Prop :=
  forall target pos used bs cs rest, bytes_ok bs = true ->
    decode_children f target pos used bs = Ok (cs, rest) -> forallb exact_box cs = true ->
    exists enc, cat_encs (map (genc true) cs) = Ok enc /\ bs = enc ++ rest /\ bytes_ok rest = true /\
                pos + sumN (map size_box cs) = target.

Definition entries_stmt (f : nat) : Prop :=
  forall target pos bs cs rest, bytes_ok bs = true ->
    decode_entries f target pos bs = Ok (cs, rest) -> forallb exact_box cs = true ->
    exists enc, cat_encs (map (genc true) cs) = Ok enc /\ bs = enc ++ rest /\ bytes_ok rest = true.

Lemma box_step f : box_stmt f -> children_stmt f -> entries_stmt f -> box_stmt (S f).
Proof.
  intros IHb IHc IHe bs t rest Hok H Hex. apply decode_box_S in H. destruct H as (h & r & Eh & _ & D).
  destruct (dec_hdr_spec _ _ _ Hok Eh) as (Hokr & Hle & _). rewrite (dec_hdr_bytes _ _ _ Hok Eh).
  pose proof (decoded_name _ _ _ _ _ D) as Hname.
  destruct D as [d l rsv r' El Ed|d lk l rsv r1 cs r' El Ep Ed K|cs r' El Ep Ecl Ec Ee|p r' El Ep Ecl Eu]; cbn [box_name] in Hname.
  - (* leaf *)
    destruct (exact_leaf _ _ _ Hex) as (Hlen & Hsz & Hg).
    destruct (proj1 (lookup_Forall _ _ _ _ leaf_table_ok El) _ _ _ _ _ Hokr Ed Hg) as (b & Hb & -> & Hokr').
    exists (hdr_bytes h ++ b). cbn [raw_box]. unfold raw_leaf. rewrite Hb, (leaf_hdr_bytes h l) by assumption.
    split; [reflexivity|]. split; [apply app_assoc|assumption].
  - (* prefixed box: stsd, dref, sample entries, ISO meta *)
    destruct (exact_pre _ _ _ _ Hex) as (Hlen & Hsz & Hg & Hcs).
    destruct (proj1 (lookup_Forall _ _ _ _ pre_table_ok (pre_lookup_some _ _ _ Ep)) _ _ _ _ _ Hokr Ed Hg) as (b & Hb & -> & Hokr1).
    assert (Hkids : exists enc, cat_encs (map (genc true) cs) = Ok enc /\ r1 = enc ++ r' /\ bytes_ok r' = true).
    { destruct K as [off _ Ec _|start Ec]; [|exact (IHe _ _ _ _ _ Hokr1 Ec Hcs)].
      destruct (IHc _ _ _ _ _ _ Hokr1 Ec Hcs) as (enc & ? & ? & ? & _). now exists enc. }
    destruct Hkids as (enc & Henc & -> & Hokr').
    exists (hdr_bytes h ++ b ++ enc). rewrite raw_box_pre, Hb, Henc, Hname, <- Hsz, hdr_bytes_compact by assumption.
    split; [reflexivity|]. split; [now rewrite <- !app_assoc|assumption].
  - (* container *)
    destruct (exact_cont _ _ Hex) as (Hlen & Hcs).
    destruct (IHc _ _ _ _ _ _ Hokr Ec Hcs) as (enc & Henc & -> & Hokr' & Hsum).
    exists (hdr_bytes h ++ enc). rewrite (raw_cont_exact _ _ _ Hex), Henc, hdr_bytes_compact by assumption.
    replace (8 + sumN (map size_box cs)) with (h_size h) by lia.
    split; [reflexivity|]. split; [apply app_assoc|assumption].
  - (* unknown *)
    destruct (rdB_spec _ _ _ _ Hokr Eu) as (-> & _ & _ & Hokr').
    exists (hdr_bytes h ++ p). split; [reflexivity|]. split; [apply app_assoc|assumption].
Qed.

Lemma children_step f : box_stmt f -> children_stmt f -> children_stmt (S f).
Proof.
  intros IHb IHc target pos used bs cs rest Hok H Hex. cbn [decode_children] in H.
  destruct (target <? pos); [discriminate|].
  destruct (pos =? target) eqn:Ept.
  - injection H as <- <-. apply N.eqb_eq in Ept. exists []. cbn. repeat split; try assumption. lia.
  - destruct (decode_box f bs) as [[c r]| | |] eqn:Eb; try discriminate.
    destruct (negb (pos + size_box c =? used + (lenN bs - lenN r))); [discriminate|].
    destruct (decode_children f target (pos + size_box c) (used + (lenN bs - lenN r)) r) as [[cs' r']| | |] eqn:Ec;
      try discriminate.
    injection H as <- <-. cbn [forallb] in Hex. apply andb_true_iff in Hex. destruct Hex as [Hc Hcs].
    destruct (IHb _ _ _ Hok Eb Hc) as (e1 & He1 & -> & Hokr).
    destruct (IHc _ _ _ _ _ _ Hokr Ec Hcs) as (e2 & He2 & -> & Hokr' & Hsum).
    exists (e1 ++ e2). split; [exact (cat_encs_cons _ _ _ _ _ He1 He2)|]. repeat split; try assumption.
    + now rewrite <- app_assoc.
    + cbn [map sumN]. lia.
Qed.

Lemma entries_step f : box_stmt f -> entries_stmt f -> entries_stmt (S f).
Proof.
  intros IHb IHe target pos bs cs rest Hok H Hex. cbn [decode_entries] in H.
  destruct (target <=? pos).
  - injection H as <- <-. exists []. cbn. now repeat split.
  - destruct (decode_box f bs) as [[c r]| | |] eqn:Eb; try discriminate.
    destruct (decode_entries f target (pos + size_box c) r) as [[cs' r']| | |] eqn:Ec; try discriminate.
    injection H as <- <-. cbn [forallb] in Hex. apply andb_true_iff in Hex. destruct Hex as [Hc Hcs].
    destruct (IHb _ _ _ Hok Eb Hc) as (e1 & He1 & -> & Hokr).
    destruct (IHe _ _ _ _ _ Hokr Ec Hcs) as (e2 & He2 & -> & Hokr').
    exists (e1 ++ e2). split; [exact (cat_encs_cons _ _ _ _ _ He1 He2)|]. repeat split; try assumption. now rewrite <- app_assoc.
Qed.

Lemma tree_both f : box_stmt f /\ children_stmt f /\ entries_stmt f.
Proof.
  induction f as [|f (IHb & IHc & IHe)].
  - repeat split; intros until 1; cbn; discriminate.
  - repeat split; [now apply box_step|now apply children_step|now apply entries_step].
Qed.

(* an exact decoded box has the size its header announced *)
Lemma exact_size f bs h r t rest : bytes_ok bs = true -> dec_hdr bs = Ok (h, r) -> dispatch f h r t rest ->
  exact_box t = true -> size_box t = h_size h.
Proof.
  intros Hok Eh D Hex. destruct (dec_hdr_spec _ _ _ Hok Eh) as (Hokr & Hle & _).
  destruct D as [d l rsv r'|d lk l rsv r1 cs r'|cs r' _ _ _ Ec _|p r']; cbn [size_box].
  - symmetry. apply (exact_leaf _ _ _ Hex).
  - symmetry. apply (exact_pre _ _ _ _ Hex).
  - destruct (exact_cont _ _ Hex) as (Hlen & Hcs).
    destruct (proj1 (proj2 (tree_both f)) _ _ _ _ _ _ Hokr Ec Hcs) as (_ & _ & _ & _ & Hsum). lia.
  - reflexivity.
Qed.

Lemma tree_lossless bs t rest :
  bytes_ok bs = true -> decode bs = Ok (t, rest) -> exact_box t = true ->
  exists enc, raw_box true t = Ok enc /\ bs = enc ++ rest.
Proof.
  intros Hok H Hex. unfold decode in H.
  destruct (proj1 (tree_both _) _ _ _ Hok H Hex) as (enc & He & Hb & _). now exists enc.
Qed.
