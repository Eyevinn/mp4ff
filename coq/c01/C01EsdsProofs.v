(* C01EsdsProofs.v — the esds descriptor layer: whatever DecodeEsdsSR accepts is reproduced from the decoded
   descriptor tree plus the captured size fields (lossless); a decoder run that kept no UnknownData never looked
   behind the bytes it consumed (guarded locality); the encoder's bytes are Size() many. *)
From V.lib Require Import Base.
From V.c01 Require Import C01Codec C01Model C01LeafProofs C01Leaf2Proofs C01Leaf3Proofs C01LocalProofs.

(* ---------------------------------------------------------------- induction on descriptors *)
Section DescInd.
  Variable P : desc -> Prop.
  Hypothesis Hdcd : forall nb ot st buf maxbr avgbr cs u, Forall P cs -> P (DDcd nb ot st buf maxbr avgbr cs u).
  Hypothesis Hdsi : forall nb dc, P (DDsi nb dc).
  Hypothesis Hslc : forall nb cv more, P (DSlc nb cv more).
  Hypothesis Hraw : forall tag nb data, P (DRaw tag nb data).
  Fixpoint desc_ind2 (d : desc) : P d :=
    match d with
    | DDcd nb ot st buf maxbr avgbr cs u =>
        Hdcd nb ot st buf maxbr avgbr cs u
          ((fix go (l : list desc) : Forall P l :=
              match l with [] => Forall_nil _ | c :: t => Forall_cons _ (desc_ind2 c) (go t) end) cs)
    | DDsi nb dc => Hdsi nb dc
    | DSlc nb cv more => Hslc nb cv more
    | DRaw tag nb data => Hraw tag nb data
    end.
End DescInd.

(* ---------------------------------------------------------------- unfolding the nested fixpoints *)
Lemma enc_desc_dcd nb ot st buf maxbr avgbr cs u r :
  enc_desc (DDcd nb ot st buf maxbr avgbr cs u) r =
  (let '(body, r') := enc_descs cs (tl r) in
   ([4] ++ hd [] r ++ be_enc 1 ot ++ be_enc 4 (N.lor (u32 (st * 16777216)) buf) ++ be_enc 4 maxbr ++ be_enc 4 avgbr ++
    body ++ u, r')).
Proof.
  cbn [enc_desc].
  assert (E : forall l r0,
    (fix go (l : list desc) (r : rsvT) {struct l} : list N * rsvT :=
       match l with
       | [] => ([], r)
       | c :: t => let '(x, r1) := enc_desc c r in let '(y, r2) := go t r1 in (x ++ y, r2)
       end) l r0 = enc_descs l r0).
  { induction l as [|c t IH]; intros r0; [reflexivity|]. cbn [enc_descs]. destruct (enc_desc c r0) as [x r1]. now rewrite IH. }
  now rewrite E.
Qed.

Lemma desc_size_dcd nb ot st buf maxbr avgbr cs u :
  desc_size_of (DDcd nb ot st buf maxbr avgbr cs u) = 13 + sizes_sum cs + lenN u.
Proof.
  cbn [desc_size_of].
  assert (E : forall l,
    (fix sum (l : list desc) : N :=
       match l with
       | [] => 0
       | c :: r => 1 + sfs_of match c with
                              | DDcd nb _ _ _ _ _ _ _ => nb | DDsi nb _ => nb | DSlc nb _ _ => nb | DRaw _ nb _ => nb
                              end + 1 + desc_size_of c + sum r
       end) l = sizes_sum l).
  { unfold sizes_sum. induction l as [|c t IH]; [reflexivity|]. cbn [map sumN]. rewrite <- IH. reflexivity. }
  now rewrite E.
Qed.

Lemma dflt_desc_dcd nb ot st buf maxbr avgbr cs u :
  dflt_desc (DDcd nb ot st buf maxbr avgbr cs u) =
  wr_size (13 + sizes_sum cs + lenN u) (N.to_nat (sfs_of nb)) :: dflt_descs cs.
Proof.
  unfold dflt_descs. cbn [dflt_desc desc_nb]. rewrite desc_size_dcd. reflexivity.
Qed.

Lemma nounk_dcd nb ot st buf maxbr avgbr cs u :
  nounk (DDcd nb ot st buf maxbr avgbr cs u) = (lenN u =? 0) && forallb nounk cs.
Proof.
  cbn [nounk]. reflexivity.
Qed.

(* the chunks the first descriptor consumes, then those of the others *)
Lemma enc_descs_cons d ds rs1 rs x1 x2 :
  (forall tl, enc_desc d (rs1 ++ tl) = (x1, tl)) -> (forall tl, enc_descs ds (rs ++ tl) = (x2, tl)) ->
  forall tl, enc_descs (d :: ds) ((rs1 ++ rs) ++ tl) = (x1 ++ x2, tl).
Proof. intros H1 H2 tl. cbn [enc_descs]. now rewrite <- app_assoc, H1, H2. Qed.

(* ---------------------------------------------------------------- size fields *)
Lemma sz_loop_spec bs : forall acc nb sz raw r, sz_loop bs acc = Ok ((nb, sz, raw), r) ->
  bs = raw ++ r /\ (bytes_ok bs = true -> bytes_ok r = true) /\
  forall r2, sz_loop (raw ++ r2) acc = Ok ((nb, sz, raw), r2).
Proof.
  induction bs as [|b t IH]; intros acc nb sz raw r H; cbn [sz_loop] in H; [discriminate|].
  destruct (128 <=? b) eqn:Eb.
  - destruct (sz_loop t (u64 (acc * 128 + b mod 128))) as [[[[nb' sz'] raw'] r']| | |] eqn:E; try discriminate.
    injection H as <- <- <- <-. destruct (IH _ _ _ _ _ E) as (-> & Hok & Hrep).
    split; [reflexivity|]. split.
    + intros Hb. rewrite bytes_ok_cons in Hb. apply andb_true_iff in Hb. now apply Hok.
    + intros r2. cbn [app sz_loop]. now rewrite Eb, Hrep.
  - injection H as <- <- <- <-. split; [reflexivity|]. split.
    + intros Hb. cbn [app] in Hb. rewrite bytes_ok_cons in Hb. now apply andb_true_iff in Hb.
    + intros r2. cbn [app sz_loop]. now rewrite Eb.
Qed.

Lemma lenN_wr_size s k : lenN (wr_size s k) = N.of_nat k + 1.
Proof. induction k as [|k IH]; [reflexivity|]. cbn [wr_size]. rewrite lenN_cons, IH. lia. Qed.

Lemma rd_bytes64_spec n bs x r : rd_bytes64 n bs = Some (x, r) ->
  bs = x ++ r /\ (bytes_ok bs = true -> bytes_ok r = true) /\ forall r2, rd_bytes64 n (x ++ r2) = Some (x, r2).
Proof.
  unfold rd_bytes64. destruct (9223372036854775808 <=? n); [discriminate|].
  destruct (rdB n bs) as [[x' r']| | |] eqn:E; try discriminate. intros H. injection H as <- <-.
  destruct (rdB_inv _ _ _ _ E) as [-> <-]. split; [reflexivity|]. split.
  - intros Hb. rewrite bytes_ok_app in Hb. now apply andb_true_iff in Hb.
  - intros r2. now rewrite rdB_app.
Qed.

Lemma lenN_0_nil {A} (u : list A) : lenN u =? 0 = true -> u = [].
Proof. destruct u; [reflexivity|]. rewrite lenN_cons. intros H. apply N.eqb_eq in H. lia. Qed.

Lemma lenN_app_sub {A} (x z : list A) : lenN (x ++ z) - lenN z = lenN x.
Proof. rewrite lenN_app. lia. Qed.

(* ---------------------------------------------------------------- the combined invariant *)
Definition desc_ok (dd : Z -> list N -> dres) : Prop :=
  forall m bs d rsv rest, dd m bs = DOk d rsv rest -> bytes_ok bs = true ->
    bytes_ok rest = true /\ exists x, bs = x ++ rest /\ (forall tl, enc_desc d (rsv ++ tl) = (x, tl)) /\
      (nounk d = true -> forall r2, dd m (x ++ r2) = DOk d rsv r2).

(* the descriptor loop: what it read is the encoding of what it returns, followed by the UnknownData it kept *)
Lemma loop_ok dd : desc_ok dd -> forall k size used bs, bytes_ok bs = true ->
  match dec_loop dd k size used bs with
  | LDone ds rs rest =>
      bytes_ok rest = true /\ exists x, bs = x ++ rest /\ (forall tl, enc_descs ds (rs ++ tl) = (x, tl)) /\
        (forallb nounk ds = true -> forall r2, dec_loop dd k size used (x ++ r2) = LDone ds rs r2)
  | LUnknown ds rs u rest =>
      bytes_ok rest = true /\ u <> [] /\ exists x, bs = x ++ u ++ rest /\ (forall tl, enc_descs ds (rs ++ tl) = (x, tl))
  | _ => True
  end.
Proof.
  intros Hdd. induction k as [|k IH]; intros size used bs Hok; cbn [dec_loop]; [exact I|].
  destruct ((size - Z.of_N used =? 0)%Z) eqn:E0.
  { split; [assumption|]. exists []. split; [reflexivity|]. split; [reflexivity|]. intros _ r2. reflexivity. }
  destruct ((size - Z.of_N used <? 0)%Z) eqn:E1; [exact I|].
  destruct (dd (size - Z.of_N used)%Z bs) as [d rsv r| | |] eqn:Ed; try exact I.
  - destruct (Hdd _ _ _ _ _ Ed Hok) as (Hokr & x1 & -> & Henc1 & Hloc1). rewrite lenN_app_sub.
    specialize (IH size (used + lenN x1) r Hokr).
    destruct (dec_loop dd k size (used + lenN x1) r) as [ds rs r'|ds rs u r'| | |] eqn:El; try exact I.
    + destruct IH as (Hokr' & x2 & -> & Henc2 & Hloc2).
      split; [assumption|]. exists (x1 ++ x2). split; [now rewrite app_assoc|]. split; [now apply enc_descs_cons|].
      intros Hn r2. cbn [forallb] in Hn. apply andb_true_iff in Hn. destruct Hn as [Hn1 Hn2].
      now rewrite <- app_assoc, (Hloc1 Hn1), lenN_app_sub, (Hloc2 Hn2).
    + destruct IH as (Hokr' & Hu & x2 & -> & Henc2).
      split; [assumption|]. split; [assumption|]. exists (x1 ++ x2). split; [now rewrite <- !app_assoc|]. now apply enc_descs_cons.
  - destruct (rdB (Z.to_N (size - Z.of_N used)) bs) as [[u r]| | |] eqn:Eu; try exact I.
    destruct (rdB_spec _ _ _ _ Hok Eu) as (-> & Hl & _ & Hokr). split; [assumption|]. split.
    + intros ->. change (lenN (@nil N)) with 0 in Hl. apply Z.eqb_neq in E0. apply Z.ltb_ge in E1. lia.
    + exists []. split; [reflexivity|]. intros tl. reflexivity.
Qed.

Lemma local_dcd_fields : local rd_dcd_fields.
Proof. unfold rd_dcd_fields. loc. Qed.

Lemma st_buf_join x : x < 256 ^ N.of_nat 4 -> N.lor (u32 (x / 16777216 * 16777216)) (x mod 16777216) = x.
Proof.
  intros Hx. change (256 ^ N.of_nat 4) with 4294967296 in Hx. unfold u32. rewrite N.mod_small by lia.
  change 16777216 with (2 ^ 24). apply join_lowk.
Qed.

(* the thirteen bytes of fields behind the size field of a DecoderConfigDescriptor *)
Definition wr_dcd_fields (ot x maxbr avgbr : N) : list N := be_enc 1 ot ++ be_enc 4 x ++ be_enc 4 maxbr ++ be_enc 4 avgbr.

Lemma dcd_fields_spec r ot x maxbr avgbr r1 : bytes_ok r = true -> rd_dcd_fields r = Ok ((ot, x, maxbr, avgbr), r1) ->
  r = wr_dcd_fields ot x maxbr avgbr ++ r1 /\ bytes_ok r1 = true /\ x < 256 ^ N.of_nat 4 /\
  forall r2, rd_dcd_fields (wr_dcd_fields ot x maxbr avgbr ++ r2) = Ok ((ot, x, maxbr, avgbr), r2).
Proof.
  intros Hok H.
  assert (Hs : r = wr_dcd_fields ot x maxbr avgbr ++ r1 /\ bytes_ok r1 = true /\ x < 256 ^ N.of_nat 4).
  { pose proof H as E. unfold rd_dcd_fields in E. run E. inj_pret E. unfold wr_dcd_fields. repeat rewrite <- app_assoc. now repeat split. }
  destruct Hs as (Hr & Hok1 & Hx). repeat split; try assumption. exact (local_print _ _ _ _ _ local_dcd_fields H Hr).
Qed.

Lemma enc_dcd nb ot x maxbr avgbr cs u raw rs body : x < 256 ^ N.of_nat 4 ->
  (forall tl, enc_descs cs (rs ++ tl) = (body, tl)) ->
  forall t0, enc_desc (DDcd nb ot (x / 16777216) (x mod 16777216) maxbr avgbr cs u) ((raw :: rs) ++ t0) =
             ([4] ++ raw ++ wr_dcd_fields ot x maxbr avgbr ++ body ++ u, t0).
Proof.
  intros Hx Hb t0. rewrite enc_desc_dcd. cbn [app tl hd]. rewrite Hb, st_buf_join by assumption.
  unfold wr_dcd_fields. now repeat rewrite <- app_assoc.
Qed.

Lemma dcd_ok dd k nb size raw : desc_ok dd ->
  forall r d rsv rest, dec_dcd dd k nb size raw r = DOk d rsv rest -> bytes_ok r = true ->
    bytes_ok rest = true /\ exists x, r = x ++ rest /\ (forall tl, enc_desc d (rsv ++ tl) = ([4] ++ raw ++ x, tl)) /\
      (nounk d = true -> forall r2, dec_dcd dd k nb size raw (x ++ r2) = DOk d rsv r2).
Proof.
  intros Hdd r d rsv rest H Hok. unfold dec_dcd in H.
  destruct (rd_dcd_fields r) as [[[[[ot x] maxbr] avgbr] r1]| | |] eqn:Ef; try discriminate.
  destruct (dcd_fields_spec _ _ _ _ _ _ Hok Ef) as (-> & Hok1 & Hx & Hlocf). set (W := wr_dcd_fields ot x maxbr avgbr) in *.
  destruct ((int64 size - 13 =? 0)%Z) eqn:E0.
  - injection H as <- <- <-. split; [assumption|]. exists (W ++ [] ++ []). split; [now rewrite !app_nil_r|]. split.
    + exact (enc_dcd nb ot x maxbr avgbr [] [] raw [] [] Hx (fun _ => eq_refl)).
    + intros _ r2. unfold dec_dcd. now rewrite !app_nil_r, Hlocf, E0.
  - destruct (dd (int64 size - 13)%Z r1) as [d1 rs1 r2| | |] eqn:Ed; try discriminate.
    destruct (Hdd _ _ _ _ _ Ed Hok1) as (Hok2 & x1 & -> & Henc1 & Hloc1).
    rewrite lenN_app_sub in H. pose proof (loop_ok dd Hdd k (int64 size) (13 + lenN x1) r2 Hok2) as L.
    destruct (dec_loop dd k (int64 size) (13 + lenN x1) r2) as [ds rs r3|ds rs u r3| | |] eqn:El; try discriminate;
      injection H as <- <- <-.
    + destruct L as (Hok3 & x2 & -> & Henc2 & Hloc2).
      split; [assumption|]. exists (W ++ (x1 ++ x2) ++ []). split; [now rewrite app_nil_r, <- !app_assoc|]. split.
      * now apply enc_dcd, enc_descs_cons.
      * intros Hn r4. rewrite nounk_dcd in Hn. cbn [forallb] in Hn. apply andb_true_iff in Hn. destruct Hn as [_ Hn].
        apply andb_true_iff in Hn. destruct Hn as [Hn1 Hn2].
        unfold dec_dcd. now rewrite app_nil_r, <- !app_assoc, Hlocf, E0, (Hloc1 Hn1), lenN_app_sub, (Hloc2 Hn2).
    + destruct L as (Hok3 & Hu & x2 & -> & Henc2).
      split; [assumption|]. exists (W ++ (x1 ++ x2) ++ u). split; [now rewrite <- !app_assoc|]. split.
      * now apply enc_dcd, enc_descs_cons.
      * intros Hn. exfalso. rewrite nounk_dcd in Hn. apply andb_true_iff in Hn. destruct Hn as [Hn _]. now apply Hu, lenN_0_nil.
Qed.

Lemma desc_step fu : desc_ok (dec_desc fu) -> desc_ok (dec_desc (S fu)).
Proof.
  intros IH m bs d rsv rest H Hok. cbn [dec_desc] in H.
  destruct ((m <? 2)%Z) eqn:Em; [discriminate|].
  destruct bs as [|tag t]; [discriminate|].
  destruct (tag =? 3) eqn:E3; [discriminate|].
  destruct (sz_loop t 0) as [[[[nb size] raw] r]| | |] eqn:Es; try discriminate.
  destruct (sz_loop_spec _ _ _ _ _ _ Es) as (-> & Hokr & Hreps).
  rewrite bytes_ok_cons in Hok. apply andb_true_iff in Hok. destruct Hok as [_ Hokt]. specialize (Hokr Hokt).
  destruct (Z.to_N m <? u64 (2 + sfs_of nb + size)) eqn:Ex; [discriminate|].
  (* tag and size field are written back as they were read; what is left is about the bytes y behind them *)
  enough (bytes_ok rest = true /\ exists y, r = y ++ rest /\ (forall tl, enc_desc d (rsv ++ tl) = ([tag] ++ raw ++ y, tl)) /\
            (nounk d = true -> forall r2, dec_desc (S fu) m (tag :: raw ++ y ++ r2) = DOk d rsv r2))
    as (Hokr' & y & -> & Henc & Hloc).
  { split; [assumption|]. exists ([tag] ++ raw ++ y). cbn [app]. rewrite <- !app_assoc. split; [reflexivity|]. split; [exact Henc|].
    intros Hn r2. rewrite <- app_assoc. now apply Hloc. }
  destruct (tag =? 4) eqn:E4.
  { destruct (dcd_ok _ _ _ _ _ IH _ _ _ _ H Hokr) as (Hokr' & x & -> & Henc & Hloc). apply N.eqb_eq in E4. subst tag.
    split; [assumption|]. exists x. split; [reflexivity|]. split; [exact Henc|].
    intros Hn r2. cbn [dec_desc]. rewrite Em, Hreps, Ex. now apply Hloc. }
  destruct (tag =? 5) eqn:E5.
  { destruct (rd_bytes64 size r) as [[dc r']|] eqn:Eb; [|discriminate]. injection H as <- <- <-.
    destruct (rd_bytes64_spec _ _ _ _ Eb) as (-> & Hok' & Hrep'). apply N.eqb_eq in E5. subst tag.
    split; [now apply Hok'|]. exists dc. split; [reflexivity|]. split; [reflexivity|].
    intros _ r2. cbn [dec_desc]. now rewrite Em, Hreps, Ex, Hrep'. }
  destruct (tag =? 6) eqn:E6.
  { destruct r as [|cv r1]; [discriminate|]. rewrite bytes_ok_cons in Hokr. apply andb_true_iff in Hokr. destruct Hokr as [_ Hokr].
    destruct (size =? 0) eqn:Ez; [discriminate|]. apply N.eqb_eq in E6. subst tag.
    destruct (1 <? size) eqn:E1.
    - destruct (rd_bytes64 (size - 1) r1) as [[more r']|] eqn:Eb; [|discriminate]. injection H as <- <- <-.
      destruct (rd_bytes64_spec _ _ _ _ Eb) as (-> & Hok' & Hrep').
      split; [now apply Hok'|]. exists (cv :: more). split; [reflexivity|]. split; [reflexivity|].
      intros _ r2. cbn [app dec_desc]. now rewrite Em, Hreps, Ex, Ez, E1, Hrep'.
    - injection H as <- <- <-. split; [assumption|]. exists [cv]. split; [reflexivity|]. split; [reflexivity|].
      intros _ r2. cbn [app dec_desc]. now rewrite Em, Hreps, Ex, Ez, E1. }
  destruct (rd_bytes64 size r) as [[data r']|] eqn:Eb; [|discriminate]. injection H as <- <- <-.
  destruct (rd_bytes64_spec _ _ _ _ Eb) as (-> & Hok' & Hrep').
  split; [now apply Hok'|]. exists data. split; [reflexivity|]. split; [reflexivity|].
  intros _ r2. cbn [dec_desc]. now rewrite Em, E3, Hreps, Ex, E4, E5, E6, Hrep'.
Qed.

Lemma desc_all f : desc_ok (dec_desc f).
Proof.
  induction f as [|f IH]; [intros m bs d rsv rest H; discriminate H|]. now apply desc_step.
Qed.

(* ---------------------------------------------------------------- the ES descriptor and the box *)
Definition wr_es_fields (esid fl dep : N) (url : list N) (ocr : N) : list N :=
  be_enc 2 esid ++ be_enc 1 fl ++ (if fl / 128 =? 1 then be_enc 2 dep else []) ++
  (if (fl / 64) mod 2 =? 1 then be_enc 1 (lenN url) ++ url else []) ++
  (if (fl / 32) mod 2 =? 1 then be_enc 2 ocr else []).

Lemma local_es_fields : local rd_es_fields.
Proof. unfold rd_es_fields. loc. Qed.

Lemma rd_if_spec c n bs v r : bytes_ok bs = true -> rd_if c n bs = Ok (v, r) ->
  bs = (if c then be_enc n v else []) ++ r /\ bytes_ok r = true.
Proof.
  intros Hok E. unfold rd_if in E. destruct c; [destruct (rd_spec _ _ _ _ Hok E) as (-> & _ & Hr); now split|].
  inj_pret E. now split.
Qed.
Lemma url_spec (c : bool) bs u r : bytes_ok bs = true ->
  (if c then (pdo n <- rd 1 ;; rdB n) else pret []) bs = Ok (u, r) ->
  bs = (if c then be_enc 1 (lenN u) ++ u else []) ++ r /\ bytes_ok r = true.
Proof.
  intros Hok E. destruct c.
  - apply pbind_ok in E. destruct E as (n & r1 & E1 & E2). destruct (rd_spec _ _ _ _ Hok E1) as (-> & _ & Hr1).
    destruct (rdB_spec _ _ _ _ Hr1 E2) as (-> & Hl & _ & Hr). rewrite Hl, <- app_assoc. now split.
  - inj_pret E. now split.
Qed.

Lemma es_fields_spec r esid fl dep url ocr r1 : bytes_ok r = true ->
  rd_es_fields r = Ok ((esid, fl, dep, url, ocr), r1) ->
  r = wr_es_fields esid fl dep url ocr ++ r1 /\ bytes_ok r1 = true /\
  forall r2, rd_es_fields (wr_es_fields esid fl dep url ocr ++ r2) = Ok ((esid, fl, dep, url, ocr), r2).
Proof.
  intros Hok H.
  assert (Hs : r = wr_es_fields esid fl dep url ocr ++ r1 /\ bytes_ok r1 = true).
  { pose proof H as E0. unfold rd_es_fields in E0. unfold wr_es_fields.
    apply pbind_ok in E0. destruct E0 as (esid' & ra & E & H0). destruct (rd_spec _ _ _ _ Hok E) as (-> & _ & Hoka). clear E.
    apply pbind_ok in H0. destruct H0 as (fl' & rb & E & H0). destruct (rd_spec _ _ _ _ Hoka E) as (-> & _ & Hokb). clear E.
    apply pbind_ok in H0. destruct H0 as (dep' & rc & E & H0). destruct (rd_if_spec _ _ _ _ _ Hokb E) as (-> & Hokc). clear E.
    apply pbind_ok in H0. destruct H0 as (url' & rd_ & E & H0). destruct (url_spec _ _ _ _ Hokc E) as (-> & Hokd). clear E.
    apply pbind_ok in H0. destruct H0 as (ocr' & re & E & H0). destruct (rd_if_spec _ _ _ _ _ Hokd E) as (-> & Hoke). clear E.
    inj_pret H0. repeat rewrite <- app_assoc. now split. }
  destruct Hs as [Hr Hok1]. split; [exact Hr|]. split; [exact Hok1|]. exact (local_print _ _ _ _ _ local_es_fields H Hr).
Qed.

Lemma bytes_eqb_eq0 x : forall y, bytes_eqb x y = true -> x = y.
Proof.
  induction x as [|a x IH]; intros [|b y] H; cbn [bytes_eqb] in H; try discriminate; [reflexivity|].
  apply andb_true_iff in H. destruct H as [H1 H2]. apply N.eqb_eq in H1. subst. f_equal. now apply IH.
Qed.
Lemma rsv_eqb0_eq r : forall d, rsv_eqb0 r d = true -> r = d.
Proof.
  induction r as [|c r IH]; intros [|e d] H; cbn [rsv_eqb0] in H; try discriminate; [reflexivity|].
  apply andb_true_iff in H. destruct H as [H1 H2]. apply bytes_eqb_eq0 in H1. subst. f_equal. now apply IH.
Qed.

Lemma dec_desc_soft0 F bs : dec_desc (S F) 0 bs = DSoft.
Proof. reflexivity. Qed.

Lemma esds_canon_true rsv nb fl url dcd cs u : esds_canon rsv nb fl url dcd cs u = true ->
  rsv = esds_dflt nb fl url dcd cs u /\ nounk dcd = true /\ forallb nounk cs = true /\ u = [].
Proof.
  unfold esds_canon. intros G. apply andb_true_iff in G. destruct G as [G Gu]. apply andb_true_iff in G. destruct G as [G Gcs].
  apply andb_true_iff in G. destruct G as [Geq Gd]. apply rsv_eqb0_eq in Geq. apply lenN_0_nil in Gu. now repeat split.
Qed.

(* the body of the box from the encodings of its descriptors *)
Lemma esds_body v f nb esid fl dep url ocr dcd cs u canon raw rs1 rs x y :
  (forall t0, enc_desc dcd (rs1 ++ t0) = (x, t0)) -> (forall t0, enc_descs cs (rs ++ t0) = (y, t0)) ->
  body_leaf (LEsds v f nb esid fl dep url ocr dcd cs u canon) (raw :: rs1 ++ rs) =
  Ok (be_enc 4 (vf_join v f) ++ [3] ++ raw ++ wr_es_fields esid fl dep url ocr ++ x ++ y ++ u).
Proof.
  intros Hx Hy. cbn [body_leaf tl hd]. rewrite Hx, <- (app_nil_r rs), Hy. unfold wr_es_fields. now repeat rewrite <- app_assoc.
Qed.

Lemma esds_core_in h r l rsv r' : bytes_ok r = true -> dec_esds_in h r = Ok ((l, rsv), r') ->
  bytes_ok r' = true /\ leaf_name l = n_esds /\ exists b, body_leaf l rsv = Ok b /\ r = b ++ r' /\
    (leaf_guard l = true -> rsv = dflt_rsv l /\ forall r2, dec_esds_in h (b ++ r2) = Ok ((l, rsv), r2)).
Proof.
  intros Hok H. unfold dec_esds_in in H. apply pbind_ok in H. destruct H as (vf & r0 & Evf & H).
  destruct (rd_spec _ _ _ _ Hok Evf) as (-> & Hvf & Hok0). cbv beta zeta in H.
  set (F := S (N.to_nat (h_size h + 65536))) in *.
  destruct r0 as [|tag t]; [discriminate|].
  destruct (negb (tag =? 3)) eqn:E3; [discriminate|]. apply negb_false_iff, N.eqb_eq in E3. subst tag.
  destruct (sz_loop t 0) as [[[[nb size] raw] rA]| | |] eqn:Es; try discriminate.
  destruct (sz_loop_spec _ _ _ _ _ _ Es) as (-> & HokA & Hreps).
  rewrite bytes_ok_cons in Hok0. apply andb_true_iff in Hok0. destruct Hok0 as [_ Hokt]. specialize (HokA Hokt).
  destruct (rd_es_fields rA) as [[[[[[esid fl] dep] url] ocr] r1]| | |] eqn:Ef; try discriminate.
  destruct (es_fields_spec _ _ _ _ _ _ _ HokA Ef) as (-> & Hok1 & Hlocf).
  set (W := wr_es_fields esid fl dep url ocr) in *. rewrite lenN_app_sub in H.
  destruct (dec_desc F (int64 size - Z.of_N (lenN W)) r1) as [dcd rs1 r2| | |] eqn:Ed1; try discriminate.
  destruct (desc_all F _ _ _ _ _ Ed1 Hok1) as (Hok2 & x1 & -> & Henc1 & Hloc1).
  destruct dcd as [a b c d0 e0 f0 g0 h0| | |]; try discriminate.
  (* the bytes used so far, as the loops count them *)
  assert (HW1 : forall z : list N, lenN (W ++ x1 ++ z) - lenN z = lenN W + lenN x1) by (intros z; rewrite !lenN_app; lia).
  rewrite HW1 in H.
  destruct (dec_desc F (int64 size - Z.of_N (lenN W + lenN x1)) r2) as [d2 rs2 r3| | |] eqn:Ed2; try discriminate.
  - destruct (desc_all F _ _ _ _ _ Ed2 Hok2) as (Hok3 & x2 & -> & Henc2 & Hloc2).
    assert (HW2 : forall z : list N, lenN (W ++ x1 ++ x2 ++ z) - lenN z = lenN W + lenN x1 + lenN x2) by (intros z; rewrite !lenN_app; lia).
    rewrite HW2 in H.
    pose proof (loop_ok _ (desc_all F) F (int64 size) (lenN W + lenN x1 + lenN x2) r3 Hok3) as L.
    destruct (dec_loop (dec_desc F) F (int64 size) (lenN W + lenN x1 + lenN x2) r3) as [ds rs r4|ds rs u r4| | |] eqn:El; try discriminate.
    + destruct (negb (size =? es_size_of fl url (DDcd a b c d0 e0 f0 g0 h0) (d2 :: ds) [])) eqn:Esz; [discriminate|]. injection H as <- <- <-.
      destruct L as (Hok4 & x3 & -> & Henc3 & Hloc3).
      split; [assumption|]. split; [reflexivity|]. eexists. split; [exact (esds_body _ _ _ _ _ _ _ _ _ _ _ _ _ _ _ _ _ Henc1 (enc_descs_cons _ _ _ _ _ _ Henc2 Henc3))|].
      fold W. rewrite (vf_join_split vf Hvf), app_nil_r. split; [now rewrite <- !app_assoc|].
      intros G. destruct (esds_canon_true _ _ _ _ _ _ _ G) as (Geq & Gd & Gcs & _). split; [exact Geq|].
      cbn [forallb] in Gcs. apply andb_true_iff in Gcs. destruct Gcs as [Gd2 Gds].
      intros rr. unfold dec_esds_in, pbind. rewrite <- !app_assoc, rd_enc by assumption. cbv beta zeta. fold F.
      cbn [app N.eqb Pos.eqb negb]. rewrite Hreps, Hlocf, lenN_app_sub.
      rewrite (Hloc1 Gd), HW1, (Hloc2 Gd2), HW2, (Hloc3 Gds), Esz. reflexivity.
    + injection H as <- <- <-.
      destruct L as (Hok4 & Hu & x3 & -> & Henc3).
      split; [assumption|]. split; [reflexivity|]. eexists. split; [exact (esds_body _ _ _ _ _ _ _ _ _ _ _ _ _ _ _ _ _ Henc1 (enc_descs_cons _ _ _ _ _ _ Henc2 Henc3))|].
      fold W. rewrite (vf_join_split vf Hvf). split; [now rewrite <- !app_assoc|].
      intros G. now destruct (Hu (proj2 (proj2 (proj2 (esds_canon_true _ _ _ _ _ _ _ G))))).
  - destruct ((int64 size - Z.of_N (lenN W + lenN x1) <? 0)%Z) eqn:Eneg; [discriminate|].
    destruct (rdB (Z.to_N (int64 size - Z.of_N (lenN W + lenN x1))) r2) as [[u r3]| | |] eqn:Eu; try discriminate.
    injection H as <- <- <-. destruct (rdB_spec _ _ _ _ Hok2 Eu) as (-> & Hlu & _ & Hok3).
    split; [assumption|]. split; [reflexivity|]. eexists.
    split; [rewrite <- (app_nil_r rs1); exact (esds_body _ _ _ _ _ _ _ _ _ [] _ _ _ _ [] _ [] Henc1 (fun _ => eq_refl))|].
    fold W. rewrite (vf_join_split vf Hvf). split; [now rewrite <- !app_assoc|].
    intros G. destruct (esds_canon_true _ _ _ _ _ _ _ G) as (Geq & Gd & _ & ->). split; [exact Geq|].
    change (lenN (@nil N)) with 0 in Hlu. apply Z.ltb_ge in Eneg.
    assert (Hz : (int64 size - Z.of_N (lenN W + lenN x1))%Z = 0%Z) by lia.
    intros rr. unfold dec_esds_in, pbind. rewrite <- !app_assoc, rd_enc by assumption. cbv beta zeta. fold F.
    cbn [app N.eqb Pos.eqb negb]. rewrite Hreps, Hlocf, lenN_app_sub, (Hloc1 Gd), HW1, Hz.
    change (dec_desc F 0 rr) with DSoft. cbv beta iota. change ((0 <? 0)%Z) with false. cbv iota.
    change (Z.to_N 0) with 0. rewrite (rdB_app [] rr : rdB 0 rr = Ok ([], rr)). reflexivity.
Qed.

(* what dec_esds_in returns is an esds leaf *)
Lemma esds_is_in h r l rsv r' : dec_esds_in h r = Ok ((l, rsv), r') ->
  match l with LEsds _ _ _ _ _ _ _ _ _ _ _ _ => True | _ => False end.
Proof.
  intros H. unfold dec_esds_in in H. apply pbind_ok in H. destruct H as (vf & r0 & _ & H). cbv beta zeta in H.
  destruct r0 as [|tag t]; [discriminate|]. destruct (negb (tag =? 3)); [discriminate|].
  destruct (sz_loop t 0) as [[[[nb size] raw] rA]| | |]; try discriminate.
  destruct (rd_es_fields rA) as [[[[[[esid fl] dep] url] ocr] r1]| | |]; try discriminate.
  destruct (dec_desc _ _ r1) as [dcd rs1 r2| | |]; try discriminate. destruct dcd; try discriminate.
  destruct (dec_desc _ _ r2) as [d2 rs2 r3| | |]; try discriminate.
  - destruct (dec_loop _ _ _ _ r3) as [ds rs r4|ds rs u r4| | |]; try discriminate.
    + destruct (negb _); [discriminate|]. injection H as <- _ _. exact I.
    + injection H as <- _ _. exact I.
  - destruct (_ <? 0)%Z; [discriminate|]. destruct (rdB _ r2) as [[u r3]| | |]; try discriminate.
    injection H as <- _ _. exact I.
Qed.

Lemma esds_name_in h r l rsv r' : dec_esds_in h r = Ok ((l, rsv), r') -> leaf_name l = n_esds.
Proof. intros H. apply esds_is_in in H. now destruct l. Qed.

(* DecodeEsdsSR (since repo commit 27ea537): the run above on a reader over the payload of the box *)
Lemma esds_unwrap h r x r' : dec_esds h r = Ok (x, r') ->
  exists data rest extra, r = data ++ rest /\ lenN data = payload_len h /\ dec_esds_in h data = Ok (x, extra) /\ r' = extra ++ rest.
Proof.
  unfold dec_esds. intros H. destruct (rdB (payload_len h) r) as [[data rest]| | |] eqn:Ed; try discriminate.
  destruct (rdB_inv _ _ _ _ Ed) as [-> Hl]. destruct (dec_esds_in h data) as [[x0 extra]| | |] eqn:Ei; try discriminate.
  injection H as <- <-. now exists data, rest, extra.
Qed.

Lemma esds_core h r l rsv r' : bytes_ok r = true -> dec_esds h r = Ok ((l, rsv), r') ->
  bytes_ok r' = true /\ leaf_name l = n_esds /\ exists b, body_leaf l rsv = Ok b /\ r = b ++ r' /\
    (leaf_guard l = true -> rsv = dflt_rsv l /\
       forall r2, payload_len h = lenN b -> dec_esds h (b ++ r2) = Ok ((l, rsv), r2)).
Proof.
  intros Hok H. destruct (esds_unwrap _ _ _ _ H) as (data & rest & extra & -> & Hl & Ei & ->).
  rewrite bytes_ok_app in Hok. apply andb_true_iff in Hok. destruct Hok as [Hokd Hokr].
  destruct (esds_core_in _ _ _ _ _ Hokd Ei) as (Hoke & Hn & b & Hb & -> & Hg).
  split; [now rewrite bytes_ok_app, Hoke|].
  split; [exact Hn|]. exists b. split; [exact Hb|]. split; [now rewrite <- app_assoc|].
  intros G. destruct (Hg G) as [Hd Hrep]. split; [exact Hd|].
  intros r2 Hp. unfold dec_esds. rewrite Hp, rdB_app.
  specialize (Hrep []). rewrite app_nil_r in Hrep. now rewrite Hrep.
Qed.

Lemma lossless_esds : leaf_lossless dec_esds.
Proof.
  intros h r l rsv r' Hok H G. destruct (esds_core _ _ _ _ _ Hok H) as (Hok' & _ & b & Hb & Hr & _).
  exists b. now repeat split.
Qed.

Lemma esds_is h r l rsv r' : dec_esds h r = Ok ((l, rsv), r') ->
  match l with LEsds _ _ _ _ _ _ _ _ _ _ _ _ => True | _ => False end.
Proof. intros H. destruct (esds_unwrap _ _ _ _ H) as (d & _ & e & _ & _ & Hi & _). exact (esds_is_in _ _ _ _ _ Hi). Qed.
Lemma esds_name h r l rsv r' : dec_esds h r = Ok ((l, rsv), r') -> leaf_name l = n_esds.
Proof. intros H. apply esds_is in H. now destruct l. Qed.

(* ---------------------------------------------------------------- Size() of the descriptors = bytes written *)
Lemma enc_descs_len_of cs :
  Forall (fun d => forall tl, exists x, enc_desc d (dflt_desc d ++ tl) = (x, tl) /\ lenN x = desc_sizesize d) cs ->
  forall t1, exists y, enc_descs cs (dflt_descs cs ++ t1) = (y, t1) /\ lenN y = sizes_sum cs.
Proof.
  induction 1 as [|c t Hc _ IHt]; intros t1; [exists []; split; reflexivity|].
  unfold dflt_descs. cbn [flat_map enc_descs]. rewrite <- app_assoc.
  destruct (Hc (flat_map dflt_desc t ++ t1)) as (x & -> & Hx). destruct (IHt t1) as (y & Hy & Hly).
  unfold dflt_descs in Hy. rewrite Hy. exists (x ++ y). split; [reflexivity|].
  unfold sizes_sum in *. cbn [map sumN]. rewrite lenN_app. lia.
Qed.

Lemma enc_desc_len : forall d tl, exists x, enc_desc d (dflt_desc d ++ tl) = (x, tl) /\ lenN x = desc_sizesize d.
Proof.
  induction d as [nb ot st buf maxbr avgbr cs u IH|nb dc|nb cv more|tag nb data] using desc_ind2; intros t0.
  1: { rewrite enc_desc_dcd, dflt_desc_dcd. cbn [app tl hd]. destruct (enc_descs_len_of cs IH t0) as (y & -> & Hy).
       eexists. split; [reflexivity|]. unfold desc_sizesize. cbn [desc_nb]. rewrite desc_size_dcd.
       repeat (rewrite lenN_cons || rewrite lenN_app). rewrite !lenN_be_enc, lenN_wr_size, N2Nat.id, Hy. change (lenN (@nil N)) with 0. lia. }
  all: cbn [dflt_desc enc_desc app tl hd desc_nb desc_size_of]; eexists; (split; [reflexivity|]);
    unfold desc_sizesize; cbn [desc_nb desc_size_of]; repeat (rewrite lenN_cons || rewrite lenN_app);
    rewrite lenN_wr_size, N2Nat.id; change (lenN (@nil N)) with 0; lia.
Qed.

Lemma enc_descs_len cs : forall t1, exists y, enc_descs cs (dflt_descs cs ++ t1) = (y, t1) /\ lenN y = sizes_sum cs.
Proof. apply enc_descs_len_of, Forall_forall. intros d _. apply enc_desc_len. Qed.

Lemma esds_body_len v f nb esid fl dep url ocr dcd cs u canon b :
  body_leaf (LEsds v f nb esid fl dep url ocr dcd cs u canon) (esds_dflt nb fl url dcd cs u) = Ok b ->
  lenN b = 4 + (1 + sfs_of nb + 1 + es_size_of fl url dcd cs u).
Proof.
  unfold esds_dflt. cbn [body_leaf tl hd].
  destruct (enc_desc_len dcd (dflt_descs cs)) as (x & -> & Hx).
  destruct (enc_descs_len cs []) as (y & Hy & Hly). rewrite app_nil_r in Hy. rewrite Hy.
  intros H. injection H as <-. unfold es_size_of, es_opt_size.
  repeat (rewrite lenN_cons || rewrite lenN_app). rewrite !lenN_be_enc, lenN_wr_size, N2Nat.id, Hx, Hly. change (lenN (@nil N)) with 0.
  destruct (fl / 128 =? 1), ((fl / 64) mod 2 =? 1), ((fl / 32) mod 2 =? 1);
    rewrite ?lenN_app, ?lenN_be_enc; change (lenN (@nil N)) with 0; lia.
Qed.
