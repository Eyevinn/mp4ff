(* C01LeafProofs.v — per-leaf losslessness: whatever DecodeXxxSR accepts is reproduced by the encoder body
   from the decoded value and the captured reserved bytes.  One shared tactic closes every kind. *)
From V.lib Require Import Base.
From V.c01 Require Import C01Codec C01Model.

Lemma pbind_ok {A B} (p : parser A) (f : A -> parser B) bs (x : B * list N) :
  pbind p f bs = Ok x -> exists a r, p bs = Ok (a, r) /\ f a r = Ok x.
Proof.
  unfold pbind. destruct (p bs) as [[a r]| | |]; try discriminate. intros H. now exists a, r.
Qed.

Lemma rd_enc n v r : v < 256 ^ N.of_nat n -> rd n (be_enc n v ++ r) = Ok (v, r).
Proof.
  intros H. unfold rd. rewrite <- (length_be_enc n v) at 1. rewrite take_app.
  now rewrite be_dec_enc_small.
Qed.

Lemma rdB_app x r : rdB (lenN x) (x ++ r) = Ok (x, r).
Proof.
  unfold rdB. rewrite lenN_app. replace (lenN x + lenN r <? lenN x) with false by (symmetry; apply N.ltb_ge; lia).
  unfold lenN. rewrite Nat2N.id, take_app. reflexivity.
Qed.

Lemma rdB_lit x n r : lenN x = n -> rdB n (x ++ r) = Ok (x, r).
Proof. intros <-. apply rdB_app. Qed.

(* ---------------------------------------------------------------- bit-field joins *)
(* a field d written above a field lo of width k (m = 2^k, given as the literal the model uses): the byte, and the
   two fields read back from it *)
Lemma lor_over m k d lo : m = 2 ^ k -> lo < m -> N.lor (d * m) lo = d * m + lo.
Proof. intros ->. apply lor_shifted_add. Qed.
Lemma div_over m d lo : lo < m -> (d * m + lo) / m = d.
Proof. intros H. symmetry. apply (N.div_unique _ _ d lo); lia. Qed.
Lemma mod_over m d lo : lo < m -> (d * m + lo) mod m = lo.
Proof. intros H. symmetry. apply (N.mod_unique _ _ d lo); lia. Qed.

(* a word cut at bit k and joined again *)
Lemma join_low m k w : m = 2 ^ k -> N.lor (w / m * m) (w mod m) = w.
Proof.
  intros ->. rewrite lor_shifted_add by (apply N.mod_lt, N.pow_nonzero; discriminate).
  rewrite N.mul_comm. symmetry. apply N.div_mod'.
Qed.

Lemma join31 w : w < 256 ^ N.of_nat 4 -> N.lor (w / 2147483648 * 2147483648) (w mod 2147483648) = w.
Proof. intros _. now apply (join_low _ 31). Qed.

Lemma join_sap w : w < 256 ^ N.of_nat 4 ->
  N.lor (N.lor (w / 2147483648 * 2147483648) ((w / 268435456) mod 8 * 268435456)) (w mod 268435456) = w.
Proof.
  intros _.
  assert (H1 : N.lor (w / 2147483648 * 2147483648) ((w / 268435456) mod 8 * 268435456)
               = w / 2147483648 * 2147483648 + (w / 268435456) mod 8 * 268435456).
  { change 2147483648 with (2 ^ 31). apply lor_shifted_add. change (2 ^ 31) with 2147483648. lia. }
  rewrite H1.
  replace (w / 2147483648 * 2147483648 + (w / 268435456) mod 8 * 268435456)
    with ((w / 2147483648 * 8 + (w / 268435456) mod 8) * 2 ^ 28) by (change (2 ^ 28) with 268435456; lia).
  rewrite lor_shifted_add by (change (2 ^ 28) with 268435456; lia).
  change (2 ^ 28) with 268435456. lia.
Qed.

(* ---------------------------------------------------------------- the shared tactic *)
Ltac inj_pret E :=
  unfold pret in E; injection E; clear E; intros; subst.

Ltac solve_read E :=
  lazymatch type of E with
  | rd ?n ?bs = Ok _ =>
      match goal with Hok : bytes_ok bs = true |- _ =>
        let Hlt := fresh "Hlt" in let Hok' := fresh "Hok" in
        destruct (rd_spec _ _ _ _ Hok E) as (-> & Hlt & Hok'); clear E; try clear Hok end
  | rdB ?n ?bs = Ok _ =>
      match goal with Hok : bytes_ok bs = true |- _ =>
        let Hl := fresh "Hlen" in let Hx := fresh "Hx" in let Hok' := fresh "Hok" in
        destruct (rdB_spec _ _ _ _ Hok E) as (-> & Hl & Hx & Hok'); clear E; try clear Hok end
  | rd_if ?c ?n ?bs = Ok _ => unfold rd_if in E; solve_read E
  | (if ?c then _ else _) ?bs = Ok _ => let Hc := fresh "Hc" in destruct c eqn:Hc; solve_read E
  | pret _ _ = Ok _ => inj_pret E
  | pfail _ = Ok _ => discriminate E
  end.

Ltac step H :=
  let a := fresh "a" in let r := fresh "r" in let E := fresh "E" in
  apply pbind_ok in H; destruct H as (a & r & E & H); cbv beta zeta in H, E; solve_read E.

(* a conditional read gives the field as wr_if prints it, whichever way the condition went; the field not read is 0 *)
Lemma rd_if_spec c n bs v r : bytes_ok bs = true -> rd_if c n bs = Ok (v, r) ->
  bs = wr_if c n v ++ r /\ v < 256 ^ N.of_nat n /\ bytes_ok r = true /\ (c = false -> v = 0).
Proof.
  unfold rd_if, wr_if. destruct c.
  - intros Hok H. destruct (rd_spec _ _ _ _ Hok H) as (? & ? & ?). now repeat split.
  - intros Hok H. injection H as <- <-. repeat split; [apply N.neq_0_lt_0, N.pow_nonzero; discriminate|assumption].
Qed.

Lemma rd_if_enc c n v r : v < 256 ^ N.of_nat n -> (c = false -> v = 0) -> rd_if c n (wr_if c n v ++ r) = Ok (v, r).
Proof. unfold rd_if, wr_if. destruct c; intros Hv Hz; [now apply rd_enc|]. now rewrite (Hz eq_refl). Qed.

Ltac step_if H :=
  let a := fresh "a" in let r := fresh "r" in let E := fresh "E" in
  apply pbind_ok in H; destruct H as (a & r & E & H); cbv beta zeta in H, E;
  lazymatch type of E with rd_if _ _ ?bs = Ok _ =>
    match goal with Hok : bytes_ok bs = true |- _ =>
      let Hlt := fresh "Hlt" in let Hok' := fresh "Hok" in let Hz := fresh "Hz" in
      destruct (rd_if_spec _ _ _ _ _ Hok E) as (-> & Hlt & Hok' & Hz); clear E; try clear Hok end end.

Ltac run H :=
  repeat (cbv beta zeta in H;
          lazymatch type of H with
          | pbind _ _ _ = Ok _ => step H
          | (if ?c then _ else _) _ = Ok _ => let Hc := fresh "Hc" in destruct c eqn:Hc
          | pfail _ = Ok _ => discriminate H
          end).

Ltac rew_conds :=
  repeat match goal with
         | Hc : ?c = true |- context [if ?c then _ else _] => rewrite Hc
         | Hc : ?c = false |- context [if ?c then _ else _] => rewrite Hc
         end.

Ltac finish_lossless :=
  cbn [body_leaf chunk nth wr_if leaf_guard] in *;
  unfold wr_if; rew_conds;
  eexists; split; [reflexivity|]; split; [|assumption];
  rewrite ?vf_join_split by assumption;
  repeat rewrite <- app_assoc; cbn [app]; reflexivity.

Definition leaf_lossless (d : hdr -> parser (leaf * rsvT)) : Prop :=
  forall h r l rsv r', bytes_ok r = true -> d h r = Ok ((l, rsv), r') -> leaf_guard l = true ->
    exists b, body_leaf l rsv = Ok b /\ r = b ++ r' /\ bytes_ok r' = true.

Lemma lossless_ftyp : leaf_lossless dec_ftyp.
Proof. intros h r l rsv r' Hok H G. unfold dec_ftyp in H. run H. inj_pret H. finish_lossless. Qed.

Lemma lossless_free : leaf_lossless dec_free.
Proof. intros h r l rsv r' Hok H G. unfold dec_free in H. run H. inj_pret H. finish_lossless. Qed.
(* vtte (nothing is read) and vsid (four bytes) *)
Lemma lossless_empty : leaf_lossless dec_empty.
Proof. intros h r l rsv r' Hok H G. unfold dec_empty in H. inj_pret H. exists []. repeat split. exact Hok. Qed.
Lemma lossless_b4 : leaf_lossless dec_b4.
Proof. intros h r l rsv r' Hok H G. unfold dec_b4 in H. run H. inj_pret H. finish_lossless. Qed.

Lemma lossless_mdat : leaf_lossless dec_mdat.
Proof.
  intros h r l rsv r' Hok H G. unfold dec_mdat in H.
  destruct (rdB (payload_len h) r) as [[x r1]| | |] eqn:E.
  - injection H; clear H; intros; subst. solve_read E. finish_lossless.
  - injection H; clear H; intros; subst. exists []. cbn [body_leaf]. now repeat split.
  - injection H; clear H; intros; subst. exists []. cbn [body_leaf]. now repeat split.
  - injection H; clear H; intros; subst. exists []. cbn [body_leaf]. now repeat split.
Qed.

Lemma lossless_mfhd : leaf_lossless dec_mfhd.
Proof. intros h r l rsv r' Hok H G. unfold dec_mfhd in H. run H. inj_pret H. finish_lossless. Qed.

Lemma lossless_tfhd : leaf_lossless dec_tfhd.
Proof. intros h r l rsv r' Hok H G. unfold dec_tfhd in H. do 2 step H. do 5 step_if H. inj_pret H. finish_lossless. Qed.

Lemma lossless_trex : leaf_lossless dec_trex.
Proof. intros h r l rsv r' Hok H G. unfold dec_trex in H. run H. inj_pret H. finish_lossless. Qed.

(* decode switches on version == 0; the encoder does too; Size() does not (C02) *)
Lemma lossless_tfdt : leaf_lossless dec_tfdt.
Proof. intros h r l rsv r' Hok H G. unfold dec_tfdt in H. run H; inj_pret H; finish_lossless. Qed.

Ltac ver_cases :=
  repeat match goal with
         | Hc : (?v =? ?k) = true |- _ => apply N.eqb_eq in Hc; try rewrite Hc in *
         | Hc : (?v =? ?k) = false |- _ => apply N.eqb_neq in Hc
         | Hc : (?v <=? ?k) = true |- _ => apply N.leb_le in Hc
         | Hc : (?v <? ?k) = false |- _ => apply N.ltb_ge in Hc
         end.

(* mvhd / tkhd: decode and encode both select the 64-bit layout on version == 1 *)
Lemma lossless_mvhd : leaf_lossless dec_mvhd.
Proof.
  intros h r l rsv r' Hok H G. unfold dec_mvhd in H. run H. inj_pret H. finish_lossless.
Qed.

Lemma lossless_tkhd : leaf_lossless dec_tkhd.
Proof.
  intros h r l rsv r' Hok H G. unfold dec_tkhd in H. run H. inj_pret H. finish_lossless.
Qed.

Lemma lossless_mdhd : leaf_lossless dec_mdhd.
Proof.
  intros h r l rsv r' Hok H G. unfold dec_mdhd in H. run H. inj_pret H. finish_lossless.
Qed.

Lemma last_removelast (l : list N) : l <> [] -> l = removelast l ++ [last l 0].
Proof. apply app_removelast_last. Qed.

Lemma lossless_hdlr : leaf_lossless dec_hdlr.
Proof.
  intros h r l rsv r' Hok H G. unfold dec_hdlr in H. run H; inj_pret H.
  - (* name ends with 0 *)
    cbn [body_leaf chunk nth].
    eexists; split; [reflexivity|]; split; [|assumption].
    rewrite vf_join_split by assumption. repeat rewrite <- app_assoc. cbn [app].
    apply N.eqb_eq in Hc0.
    assert (Hne : a3 <> []).
    { intros ->. cbn in Hlen1. apply N.ltb_lt in Hc. lia. }
    rewrite (last_removelast a3 Hne) at 1. rewrite Hc0. repeat rewrite <- app_assoc. reflexivity.
  - cbn [body_leaf chunk nth].
    eexists; split; [reflexivity|]; split; [|assumption].
    rewrite vf_join_split by assumption. repeat rewrite <- app_assoc. cbn [app]. reflexivity.
  - cbn [body_leaf chunk nth].
    eexists; split; [reflexivity|]; split; [|assumption].
    rewrite vf_join_split by assumption. repeat rewrite <- app_assoc. cbn [app]. reflexivity.
Qed.

(* stage 5: data (the two skipped words are captured), mime (termination as in hdlr), the wvtt prefix *)
Lemma lossless_data : leaf_lossless dec_data.
Proof. intros h r l rsv r' Hok H G. unfold dec_data in H. run H. inj_pret H. finish_lossless. Qed.

Lemma lossless_mime : leaf_lossless dec_mime.
Proof.
  intros h r l rsv r' Hok H G. unfold dec_mime in H. run H; inj_pret H.
  - cbn [body_leaf]. eexists; split; [reflexivity|]; split; [|assumption].
    rewrite vf_join_split by assumption. repeat rewrite <- app_assoc. cbn [app].
    apply N.eqb_eq in Hc0.
    assert (Hne : a0 <> []).
    { intros ->. cbn in Hlen. apply N.ltb_ge in Hc. lia. }
    rewrite (last_removelast a0 Hne) at 1. rewrite Hc0. repeat rewrite <- app_assoc. reflexivity.
  - cbn [body_leaf]. eexists; split; [reflexivity|]; split; [|assumption].
    rewrite vf_join_split by assumption. repeat rewrite <- app_assoc. cbn [app]. reflexivity.
Qed.

Lemma lossless_wvtt : leaf_lossless dec_wvtt.
Proof.
  intros h r l rsv r' Hok H G. unfold dec_wvtt in H.
  destruct (rdB 6 r) as [[r6 r1]| | |] eqn:E6.
  - destruct (rdB_spec _ _ _ _ Hok E6) as (-> & Hl6 & _ & Hok1).
    destruct (rd 2 r1) as [[dri r2]| | |] eqn:E2.
    + injection H as <- <- <-. destruct (rd_spec _ _ _ _ Hok1 E2) as (-> & _ & Hok2).
      cbn [body_leaf chunk nth]. eexists; split; [reflexivity|]; split; [|assumption]. now rewrite <- app_assoc.
    + destruct (16 <? h_size h); [discriminate|]. injection H as <- <- <-. discriminate G.
    + destruct (16 <? h_size h); [discriminate|]. injection H as <- <- <-. discriminate G.
    + destruct (16 <? h_size h); [discriminate|]. injection H as <- <- <-. discriminate G.
  - destruct (16 <? h_size h); [discriminate|]. injection H as <- <- <-. discriminate G.
  - destruct (16 <? h_size h); [discriminate|]. injection H as <- <- <-. discriminate G.
  - destruct (16 <? h_size h); [discriminate|]. injection H as <- <- <-. discriminate G.
Qed.

(* ---------------------------------------------------------------- counted tables *)
Lemma item_tsample fl bs a r : bytes_ok bs = true -> rd_tsample fl bs = Ok (a, r) ->
  bs = wr_tsample fl a ++ r /\ bytes_ok r = true.
Proof.
  intros Hok H. unfold rd_tsample in H. do 4 step_if H. inj_pret H. split; [|assumption].
  unfold wr_tsample. cbn [ts_dur ts_size ts_flags ts_cto]. repeat rewrite <- app_assoc. reflexivity.
Qed.

Lemma item_pair bs a r : bytes_ok bs = true -> rd_pair bs = Ok (a, r) -> bs = wr_pair a ++ r /\ bytes_ok r = true.
Proof.
  intros Hok H. unfold rd_pair in H. run H. inj_pret H. split; [|assumption].
  unfold wr_pair. cbn [fst snd]. repeat rewrite <- app_assoc. reflexivity.
Qed.

Lemma item_sref bs a r : bytes_ok bs = true -> rd_sref bs = Ok (a, r) -> bs = wr_sref a ++ r /\ bytes_ok r = true.
Proof.
  intros Hok H. unfold rd_sref in H. run H. inj_pret H. split; [|assumption].
  unfold wr_sref. cbn [sr_type sr_size sr_dur sr_sap sr_saptype sr_delta].
  rewrite join31, join_sap by assumption. repeat rewrite <- app_assoc. reflexivity.
Qed.

Ltac many E lem :=
  match type of E with rd_many _ _ _ ?x = _ =>
    match goal with Hk : bytes_ok x = true |- _ =>
      let Hl := fresh "Hl" in let Hq := fresh "Hok" in
      destruct (rd_many_spec _ _ lem _ _ _ _ _ Hk E) as (-> & Hl & Hq) end end.

Lemma lossless_stts : leaf_lossless dec_stts.
Proof.
  intros h r l rsv r' Hok H G. unfold dec_stts in H. run H.
  apply pbind_ok in H. destruct H as (es & r1 & E & H). inj_pret H.
  many E item_pair.
  cbn [body_leaf]. eexists; split; [reflexivity|]; split; [|assumption].
  rewrite vf_join_split, Hl by assumption. repeat rewrite <- app_assoc. reflexivity.
Qed.

Lemma lossless_sidx : leaf_lossless dec_sidx.
Proof.
  intros h r l rsv r' Hok H G. unfold dec_sidx in H. run H.
  apply pbind_ok in H. destruct H as (es & r1 & E & H). inj_pret H.
  many E item_sref.
  cbn [body_leaf chunk nth]. eexists; split; [reflexivity|]; split; [|assumption].
  rewrite vf_join_split, Hl by assumption.
  destruct (vf_version a =? 0); repeat rewrite <- app_assoc; reflexivity.
Qed.

Lemma lossless_trun : leaf_lossless dec_trun.
Proof.
  intros h r l rsv r' Hok H G. unfold dec_trun in H. do 2 step H. cbv zeta in H.
  destruct (negb _); [discriminate H|]. destruct (_ && _); [discriminate H|]. do 2 step_if H.
  apply pbind_ok in H. destruct H as (es & r9 & E & H). inj_pret H. many E (item_tsample (vf_flags a)).
  cbn [leaf_guard] in G. cbn [body_leaf]. destruct (has (vf_flags a) 1 && (_ =? 0)); [discriminate G|].
  eexists; split; [reflexivity|]; split; [|assumption].
  rewrite vf_join_split, Hl by assumption. repeat rewrite <- app_assoc. reflexivity.
Qed.
