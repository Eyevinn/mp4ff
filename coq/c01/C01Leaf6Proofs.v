(* C01Leaf6Proofs.v — decoders of the shape `data := sr.ReadBytes(payloadLen); decodeXxxFromData(data)` (dec_whole):
   dac3 and dec3.  One lemma per kind (the encoder's body of a guarded decoded value is the data, Size() is its length + 8)
   gives losslessness, the name, and print-then-parse. *)
From V.lib Require Import Base.
From V.c01 Require Import C01Codec C01Model C01LeafProofs.

Definition whole_ok (f : list N -> option leaf) (nm : list N) : Prop :=
  forall d l, bytes_ok d = true -> f d = Some l ->
    leaf_name l = nm /\ dflt_rsv l = [] /\ leaf_large l = false /\
    (leaf_guard l = true -> body_leaf l [] = Ok d /\ size_leaf l = 8 + lenN d).

Lemma whole_run f h r l rsv r' : bytes_ok r = true -> dec_whole f h r = Ok ((l, rsv), r') ->
  exists d, r = d ++ r' /\ lenN d = payload_len h /\ bytes_ok d = true /\ bytes_ok r' = true /\ f d = Some l /\ rsv = [].
Proof.
  intros Hok H. unfold dec_whole in H. apply pbind_ok in H. destruct H as (d & r1 & E & H).
  destruct (rdB_spec _ _ _ _ Hok E) as (-> & Hl & Hd & Hr1).
  destruct (f d) as [l0|] eqn:Ef; [|discriminate]. injection H as <- <- <-. exists d. repeat split; assumption.
Qed.

Lemma whole_lossless f nm : whole_ok f nm -> leaf_lossless (dec_whole f).
Proof.
  intros Hf h r l rsv r' Hok H G. destruct (whole_run _ _ _ _ _ _ Hok H) as (d & -> & Hl & Hd & Hr' & Ef & ->).
  destruct (Hf _ _ Hd Ef) as (_ & _ & _ & Hb). destruct (Hb G) as [Hb1 _]. exists d. repeat split; assumption.
Qed.

Lemma whole_name f nm : whole_ok f nm -> forall h r l rsv r', bytes_ok r = true -> dec_whole f h r = Ok ((l, rsv), r') -> leaf_name l = nm.
Proof.
  intros Hf h r l rsv r' Hok H. destruct (whole_run _ _ _ _ _ _ Hok H) as (d & _ & _ & Hd & _ & Ef & _).
  exact (proj1 (Hf _ _ Hd Ef)).
Qed.

(* ---------------------------------------------------------------- dac3 *)
Lemma dac3_recombine w : w < 16777216 ->
  match dac3_fields w with (a, b, c, d, e, f, g) => dac3_word a b c d e f g end = w.
Proof.
  intros H. unfold dac3_fields, dac3_word. cbv zeta.
  (* Horner: each quotient is the next one times its radix plus a digit, and the last quotient is below 4; with
     quotients and digits as unknowns this is linear *)
  pose proof (N.div_mod' w 32) as E1. set (q1 := w / 32) in *. set (d0 := w mod 32) in *.
  pose proof (N.div_mod' q1 32) as E2. set (q2 := q1 / 32) in *. set (d1 := q1 mod 32) in *.
  pose proof (N.div_mod' q2 2) as E3. set (q3 := q2 / 2) in *. set (d2 := q2 mod 2) in *.
  pose proof (N.div_mod' q3 8) as E4. set (q4 := q3 / 8) in *. set (d3 := q3 mod 8) in *.
  pose proof (N.div_mod' q4 8) as E5. set (q5 := q4 / 8) in *. set (d4 := q4 mod 8) in *.
  pose proof (N.div_mod' q5 32) as E6. set (q6 := q5 / 32) in *. set (d5 := q5 mod 32) in *.
  clearbody q1 q2 q3 q4 q5 q6 d0 d1 d2 d3 d4 d5.
  rewrite (N.mod_small q6 4) by lia. lia.
Qed.

Lemma zeros_of_forallb (zs : list N) : forallb (N.eqb 0) zs = true -> zs = zeros (length zs).
Proof.
  induction zs as [|z t IH]; [reflexivity|]. cbn [forallb length]. intros H. apply andb_true_iff in H. destruct H as [Hz Ht].
  apply N.eqb_eq in Hz. subst z. unfold zeros. cbn [repeat]. f_equal. exact (IH Ht).
Qed.

Lemma dac3_ok : whole_ok dac3_of n_dac3.
Proof.
  intros d l Hok H. unfold dac3_of in H. destruct (lenN d <? 3) eqn:E3.
  - destruct (dac3_fields _) as [[[[[[a b] c] d0] e] f] g]. injection H as <-.
    split; [reflexivity|]. split; [reflexivity|]. split; [reflexivity|]. intros G. discriminate G.
  - destruct (rdB _ d) as [[zs rest]| | |] eqn:Ez; try discriminate.
    destruct (rdB_spec _ _ _ _ Hok Ez) as (-> & Hlz & Hokz & Hokrest).
    destruct (negb (forallb (N.eqb 0) zs)) eqn:Ezz; [discriminate|]. apply negb_false_iff in Ezz.
    destruct (rd 3 rest) as [[w extra]| | |] eqn:Ew; try discriminate.
    destruct (rd_spec _ _ _ _ Hokrest Ew) as (-> & Hw & Hokx).
    pose proof (dac3_recombine w) as Hrec.
    destruct (dac3_fields w) as [[[[[[a b] c] d0] e] f] g]. injection H as <-.
    split; [reflexivity|]. split; [reflexivity|]. split; [reflexivity|]. intros G. cbn [leaf_guard] in G. apply N.eqb_eq in G.
    assert (extra = []) by (destruct extra; [reflexivity|rewrite lenN_cons in G; lia]). subst extra.
    change (256 ^ N.of_nat 3) with 16777216 in Hw. specialize (Hrec Hw).
    cbn [body_leaf size_leaf]. rewrite Hrec. rewrite <- Hlz.
    replace (N.to_nat (lenN zs)) with (length zs) by (unfold lenN; now rewrite Nat2N.id).
    rewrite <- (zeros_of_forallb zs Ezz). split; [reflexivity|].
    rewrite !lenN_app, lenN_be_enc. change (lenN (@nil N)) with 0. lia.
Qed.

(* ---------------------------------------------------------------- dec3 *)
(* the three bytes of a substream put together again from their fields (b mod 2 = 0, b / 32 = 0: the reserved bits are 0) *)
Lemma ec3_b0 b : b mod 2 = 0 -> b / 64 * 64 + (b / 2) mod 32 * 2 = b.
Proof. lia. Qed.
Lemma ec3_b1 b : b / 128 * 128 + (b / 16) mod 8 * 16 + (b / 2) mod 8 * 2 + b mod 2 = b.
Proof. lia. Qed.
Lemma ec3_b2 b c : b / 32 = 0 -> c < 256 ->
  (b / 2) mod 16 * 2 + (b mod 2 * 256 + c) / 256 = b /\ (b mod 2 * 256 + c) mod 256 = c.
Proof. lia. Qed.
Lemma ec3_b2_nodep b : b / 32 = 0 -> b mod 2 = 0 -> (b / 2) mod 16 * 2 + 0 = b.
Proof. lia. Qed.

Lemma item_ec3 bs s z r : bytes_ok bs = true -> rd_ec3sub bs = Ok ((s, z), r) ->
  bytes_ok r = true /\ (z = true -> bs = wr_ec3sub s ++ r).
Proof.
  intros Hok H. unfold rd_ec3sub in H. run H; inj_pret H; (split; [assumption|]); intros Hz;
    change (256 ^ N.of_nat 1) with 256 in *; cbn [wr_ec3sub]; rewrite ?Hc; repeat rewrite <- app_assoc.
  - apply andb_true_iff in Hz. destruct Hz as [Z1 Z2]. apply N.eqb_eq in Z1, Z2.
    destruct (ec3_b2 a1 a2 Z2 Hlt2) as [-> ->]. now rewrite (ec3_b0 a Z1), ec3_b1.
  - apply andb_true_iff in Hz. destruct Hz as [Hz Z3]. apply andb_true_iff in Hz. destruct Hz as [Z1 Z2]. apply N.eqb_eq in Z1, Z2, Z3.
    now rewrite (ec3_b0 a Z1), ec3_b1, (ec3_b2_nodep a1 Z2 Z3).
Qed.

Definition ec3_len (s : N * N * N * N * N * N * N * N) : N :=
  match s with (_, _, _, _, _, _, nds, _) => if 0 <? nds then 4 else 3 end.
Lemma lenN_wr_ec3sub s : lenN (wr_ec3sub s) = ec3_len s.
Proof.
  destruct s as [[[[[[[a b] c] d] e] f] nds] cl]. cbn [wr_ec3sub ec3_len]. destruct (0 <? nds);
    repeat rewrite lenN_app; repeat rewrite lenN_be_enc; reflexivity.
Qed.
Lemma lenN_wr_ec3subs l : lenN (flat_map wr_ec3sub l) = sumN (map ec3_len l).
Proof. induction l as [|s t IH]; [reflexivity|]. cbn [flat_map map sumN]. now rewrite lenN_app, lenN_wr_ec3sub, IH. Qed.

Lemma many_ec3 f : forall cnt bs l r, bytes_ok bs = true -> rd_many f cnt rd_ec3sub bs = Ok (l, r) ->
  bytes_ok r = true /\ lenN l = cnt /\ (forallb snd l = true -> bs = flat_map wr_ec3sub (map fst l) ++ r).
Proof.
  intros cnt bs l r Hok H. revert Hok. apply (rd_many_ind _ _ _ _ _ _ H); [now repeat split|]. clear.
  intros cnt bs [s z] r1 l r Hc E IH Hok. destruct (item_ec3 _ _ _ _ Hok E) as [Hok1 Hi]. destruct (IH Hok1) as (Hokr & Hl & Hrest).
  split; [assumption|]. split; [rewrite lenN_cons; lia|]. cbn [forallb snd map fst flat_map]. intros Hz.
  apply andb_true_iff in Hz. destruct Hz as [Z1 Z2]. rewrite (Hi Z1) at 1. rewrite (Hrest Z2) at 1. now rewrite <- app_assoc.
Qed.

Lemma dec3_ok : whole_ok dec3_of n_dec3.
Proof.
  intros d l Hok H. unfold dec3_of in H.
  match type of H with match ?p d with _ => _ end = _ => destruct (p d) as [[[dr subs] reserved]| | |] eqn:E; try discriminate end.
  injection H as <-. split; [reflexivity|]. split; [reflexivity|]. split; [reflexivity|]. intros G. cbn [leaf_guard] in G.
  apply pbind_ok in E. destruct E as (hd & r1 & E1 & E). destruct (rd_spec _ _ _ _ Hok E1) as (-> & Hhd & Hok1).
  apply pbind_ok in E. destruct E as (ss & r2 & E2 & E). unfold pret in E. injection E as <- <- <-.
  destruct (many_ec3 _ _ _ _ _ Hok1 E2) as (Hok2 & Hl & Hbs). rewrite (Hbs G).
  cbn [body_leaf size_leaf]. fold ec3_len.
  assert (Hml : lenN (map fst ss) = lenN ss) by (unfold lenN; now rewrite map_length).
  split.
  - rewrite Hml, Hl. f_equal. f_equal. f_equal. change (256 ^ N.of_nat 2) with 65536 in Hhd. lia.
  - rewrite !lenN_app, lenN_be_enc, lenN_wr_ec3subs. lia.
Qed.

Lemma lossless_dac3 : leaf_lossless dec_dac3. Proof. exact (whole_lossless _ _ dac3_ok). Qed.
Lemma lossless_dec3 : leaf_lossless dec_dec3. Proof. exact (whole_lossless _ _ dec3_ok). Qed.
