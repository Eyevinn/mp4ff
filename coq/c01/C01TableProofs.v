(* C01TableProofs.v — every entry of leaf_table is lossless and yields a leaf whose name is the table key. *)
From V.lib Require Import Base.
From V.c01 Require Import C01Codec C01Model C01LeafProofs C01Leaf2Proofs C01Leaf3Proofs C01Leaf4Proofs C01Leaf5Proofs C01Leaf6Proofs C01LocalProofs C01EsdsProofs C01SgpdProofs.

Definition entry_ok (e : list N * (hdr -> parser (leaf * rsvT))) : Prop :=
  leaf_lossless (snd e) /\
  (forall h r l rsv r', h_name h = fst e -> snd e h r = Ok ((l, rsv), r') -> leaf_name l = fst e).

Ltac nrun H :=
  repeat (cbv beta zeta in H;
          lazymatch type of H with
          | pbind _ _ _ = Ok _ => apply pbind_ok in H; destruct H as (? & ? & _ & H)
          | (if ?c then _ else _) _ = Ok _ => destruct c
          | (match ?o with Some _ => _ | None => _ end) _ = Ok _ => destruct o as [[? ?]|]
          | pfail _ = Ok _ => discriminate H
          end).
Ltac name_of H := nrun H; unfold pret in H; injection H; intros; subst; cbn [leaf_name]; congruence.

Lemma avcC_name h r l rsv r' : dec_avcC h r = Ok ((l, rsv), r') -> leaf_name l = n_avcC.
Proof.
  intros H. destruct (dec_rec_inv avcc_rec _ _ _ _ _ H) as (data & rsv0 & extra & _ & E & _).
  unfold avcc_rec in E. nrun E.
  - unfold pret in E. injection E as <- _ _. reflexivity.
  - cbv beta in E. match type of E with (match ?x with _ => _ end) = _ => destruct x end;
      [injection E as <- _ _; reflexivity|]. nrun E. unfold pret in E. injection E as <- _ _. reflexivity.
Qed.

Lemma hvcC_name h r l rsv r' : dec_hvcC h r = Ok ((l, rsv), r') -> leaf_name l = n_hvcC.
Proof.
  intros H. destruct (dec_rec_inv hvcc_rec _ _ _ _ _ H) as (data & rsv0 & extra & _ & E & _).
  unfold hvcc_rec in E. nrun E. unfold pret in E. injection E as <- _ _. reflexivity.
Qed.

Lemma uuid_name h r l rsv r' : dec_uuid h r = Ok ((l, rsv), r') -> leaf_name l = n_uuid.
Proof.
  intros H. unfold dec_uuid in H. apply pbind_ok in H. destruct H as (u & r0 & _ & H).
  destruct (bytes_eqb u uuid_tfxd); [nrun H; unfold pret in H; injection H as <- _ _; reflexivity|].
  destruct (bytes_eqb u uuid_tfrf); [nrun H; unfold pret in H; injection H as <- _ _; reflexivity|].
  destruct (bytes_eqb u uuid_piff).
  - destruct (h_size h <? 16); [discriminate H|]. apply pbind_ok in H. destruct H as ([l0 rsv0] & r1 & _ & H). cbn [fst] in H.
    destruct l0; try discriminate H. unfold pret in H. injection H as <- _ _. reflexivity.
  - destruct (h_size h <? 24); [discriminate H|]. nrun H. unfold pret in H. injection H as <- _ _. reflexivity.
Qed.

Lemma elng_name h r l rsv r' : dec_elng h r = Ok ((l, rsv), r') -> leaf_name l = n_elng.
Proof.
  intros H. unfold dec_elng in H. destruct (payload_len h <? 7).
  - destruct (ztf r (payload_len h)) as [[s|] r0]; injection H as <- _ _; reflexivity.
  - nrun H. unfold pret in H. injection H as <- _ _. reflexivity.
Qed.

Lemma wvtt_name h r l rsv r' : dec_wvtt h r = Ok ((l, rsv), r') -> leaf_name l = n_wvtt.
Proof.
  intros H. unfold dec_wvtt in H. destruct (rdB 6 r) as [[r6 r1]| | |]; [destruct (rd 2 r1) as [[dri r2]| | |]|..];
    try (destruct (16 <? h_size h); [discriminate H|]); injection H as <- _ _; reflexivity.
Qed.

(* the name lemmas of dec_whole ask bytes_ok of the input, which entry_ok does not give: the constructor is read off the run *)
Lemma dac3_name h r l rsv r' : dec_dac3 h r = Ok ((l, rsv), r') -> leaf_name l = n_dac3.
Proof.
  intros H. unfold dec_dac3, dec_whole in H. apply pbind_ok in H. destruct H as (d & r1 & _ & H).
  destruct (dac3_of d) as [l0|] eqn:E; [|discriminate]. injection H as <- _ _. unfold dac3_of in E.
  destruct (lenN d <? 3).
  - destruct (dac3_fields _) as [[[[[[a b] c] d0] e] f] g]. injection E as <-. reflexivity.
  - destruct (rdB _ d) as [[zs rest]| | |]; try discriminate. destruct (negb (forallb (N.eqb 0) zs)); [discriminate|].
    destruct (rd 3 rest) as [[w extra]| | |]; try discriminate.
    destruct (dac3_fields w) as [[[[[[a b] c] d0] e] f] g]. injection E as <-. reflexivity.
Qed.
Lemma dec3_name h r l rsv r' : dec_dec3 h r = Ok ((l, rsv), r') -> leaf_name l = n_dec3.
Proof.
  intros H. unfold dec_dec3, dec_whole in H. apply pbind_ok in H. destruct H as (d & r1 & _ & H).
  destruct (dec3_of d) as [l0|] eqn:E; [|discriminate]. injection H as <- _ _. unfold dec3_of in E.
  match type of E with match ?p with _ => _ end = _ => destruct p as [[[dr subs] reserved]| | |]; try discriminate end.
  injection E as <-. reflexivity.
Qed.

Lemma leaf_table_ok : Forall entry_ok leaf_table.
Proof.
  unfold leaf_table.
  (* the name of every entry by running its decoder; what is left is losslessness, entry by entry in table order *)
  repeat apply Forall_cons; try apply Forall_nil; (split; cbn [fst snd]; [|
    intros h r l rsv r' Hn H;
    try (apply (dac3_name _ _ _ _ _ H));
    try (apply (dec3_name _ _ _ _ _ H));
    try (apply (avcC_name _ _ _ _ _ H));
    try (apply (hvcC_name _ _ _ _ _ H));
    try (apply (esds_name _ _ _ _ _ H));
    try (apply (uuid_name _ _ _ _ _ H));
    try (apply (elng_name _ _ _ _ _ H));
    try (unfold dec_mdat in H; destruct (rdB (payload_len h) r) as [[x r1]| | |]; injection H; intros; subst; reflexivity);
    unfold dec_ftyp, dec_free, dec_empty, dec_b4, dec_data, dec_mime, dec_mfhd, dec_tfhd, dec_tfdt, dec_trun, dec_mvhd, dec_tkhd, dec_sidx, dec_trex, dec_mdhd,
      dec_hdlr, dec_stts, dec_stsc, dec_stsz, dec_tab, dec_sdtp, dec_ctts, dec_elst, dec_saiz, dec_saio, dec_sbgp, dec_prft,
      dec_tenc, dec_frma, dec_vmhd, dec_smhd, dec_fullonly, dec_mfro, dec_mehd, dec_tfra, dec_pssh,
      dec_url, dec_btrt, dec_pasp, dec_colr, dec_clap, dec_schm, dec_cslg, dec_senc, dec_emsg, dec_kind, dec_subs, dec_sgpd in H;
    name_of H]).
  all: [>
    exact lossless_ftyp | exact lossless_ftyp | exact lossless_free | exact lossless_free | exact lossless_mdat |
    exact lossless_mfhd | exact lossless_tfhd | exact lossless_tfdt | exact lossless_trun | exact lossless_mvhd |
    exact lossless_tkhd | exact lossless_sidx | exact lossless_trex | exact lossless_mdhd | exact lossless_hdlr |
    exact lossless_stts | exact lossless_stsc | exact lossless_stsz | exact (lossless_tab 4) |
    exact (lossless_tab 4) | exact (lossless_tab 8) | exact lossless_sdtp | exact lossless_ctts |
    exact lossless_elst | exact lossless_saiz | exact lossless_saio | exact lossless_sbgp | exact lossless_prft |
    exact lossless_tenc | exact lossless_frma | exact lossless_vmhd | exact lossless_smhd | exact lossless_fullonly |
    exact lossless_fullonly | exact lossless_mfro | exact lossless_mehd | exact lossless_tfra | exact lossless_pssh |
    exact lossless_url | exact lossless_avcC | exact lossless_btrt | exact lossless_pasp | exact lossless_colr |
    exact lossless_clap | exact lossless_schm | exact lossless_cslg | exact lossless_senc | exact lossless_emsg |
    exact lossless_elng | exact lossless_kind | exact lossless_hvcC | exact lossless_subs | exact lossless_esds |
    exact lossless_uuid | exact lossless_sgpd | exact lossless_free | exact lossless_free | exact lossless_free |
    exact lossless_free | exact lossless_free | exact lossless_free | exact lossless_free | exact lossless_empty |
    exact lossless_b4 | exact lossless_data | exact lossless_mime | exact lossless_dac3 | exact lossless_dec3 ].
Qed.

(* the prefixed boxes: stsd, dref, sample entries *)
Definition pre_entry_ok (e : list N * ((hdr -> parser (leaf * rsvT)) * loopkind)) : Prop :=
  leaf_lossless (fst (snd e)) /\
  (forall h r l rsv r', h_name h = fst e -> fst (snd e) h r = Ok ((l, rsv), r') -> leaf_name l = fst e).

Lemma pre_table_ok : Forall pre_entry_ok pre_table.
Proof.
  unfold pre_table.
  repeat apply Forall_cons; try apply Forall_nil; split; cbn [fst snd];
    try first [ exact lossless_stsd | exact lossless_dref | exact lossless_visual | exact lossless_audio | exact lossless_fullonly
              | exact lossless_wvtt ];
    intros h r l rsv r' Hn H; try exact (wvtt_name _ _ _ _ _ H);
    unfold dec_stsd, dec_dref, dec_visual, dec_audio, dec_fullonly in H; name_of H.
Qed.
