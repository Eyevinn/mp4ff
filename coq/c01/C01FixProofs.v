(* C01FixProofs.v — the general fixed point: for every slice the model of DecodeBoxSR accepts with an exact tree t,
   the bytes enc the Go encoders write (raw_box false t) decode again, to the tree norm_box t (= t with every captured
   reserved chunk replaced by the encoder's value), and re-encoding that gives enc again.  No hypothesis on the
   reserved bytes of the input (C01_fixpoint_partial needed them to have the encoder's values already). *)
From V.lib Require Import Base.
From V.c01 Require Import C01Codec C01Model C01LeafProofs C01TableProofs C01TreeProofs C01WhyProofs C01SizeProofs
  C01LocalProofs C01StableProofs.

(* ---------------------------------------------------------------- norm_box keeps everything but the chunks *)
Lemma map_norm_ext {B} (f : mbox -> B) cs : Forall (fun c => f (norm_box c) = f c) cs -> map f (map norm_box cs) = map f cs.
Proof. intros H. rewrite map_map. apply map_ext_in. intros c Hin. exact (proj1 (Forall_forall _ _) H c Hin). Qed.

Lemma size_norm t : size_box (norm_box t) = size_box t.
Proof.
  induction t as [h l r|h cs IH|h p|h l r cs IH] using mbox_rect2; cbn [norm_box size_box]; try reflexivity;
    now rewrite (map_norm_ext size_box cs IH).
Qed.

Lemma sizes_norm cs : map size_box (map norm_box cs) = map size_box cs.
Proof. rewrite map_map. apply map_ext. intros c. apply size_norm. Qed.

Lemma name_norm t : box_name (norm_box t) = box_name t.
Proof. destruct t; reflexivity. Qed.

Lemma trak_norm t : is_trak_box (norm_box t) = is_trak_box t.
Proof. unfold is_trak_box. now rewrite name_norm. Qed.

Lemma edts_norm cs : edts_ok (map norm_box cs) = edts_ok cs.
Proof. unfold edts_ok. induction cs as [|c cs IH]; [reflexivity|]. cbn [map forallb]. now rewrite name_norm, IH. Qed.

Lemma trun_unset_norm t : trun_unset (norm_box t) = trun_unset t.
Proof. destruct t as [h l r|h cs|h p|h l r cs]; reflexivity. Qed.

Lemma existsb_map_ext {A} (f : A -> bool) (g : A -> A) l : (forall x, f (g x) = f x) -> existsb f (map g l) = existsb f l.
Proof. intros H. induction l as [|a l IH]; [reflexivity|]. cbn [map existsb]. now rewrite IH, H. Qed.

Lemma traf_unset_norm t : traf_unset (norm_box t) = traf_unset t.
Proof.
  destruct t as [h l r|h cs|h p|h l r cs]; try reflexivity. cbn [norm_box traf_unset]. f_equal.
  apply existsb_map_ext. apply trun_unset_norm.
Qed.

Lemma moof_pre_norm cs : moof_pre (map norm_box cs) = moof_pre cs.
Proof. unfold moof_pre. now rewrite (existsb_map_ext _ _ _ traf_unset_norm). Qed.

Lemma raw_norm t : raw_box false (norm_box t) = raw_box false t.
Proof.
  assert (E : forall cs, Forall (fun c => raw_box false (norm_box c) = raw_box false c) cs ->
                map (genc false) (map norm_box cs) = map (genc false) cs).
  { intros cs H. apply map_norm_ext. apply (Forall_impl _ (fun c Hc => f_equal2 pair (trak_norm c) Hc) H). }
  induction t as [h l r|h cs IH|h p|h l r cs IH] using mbox_rect2; cbn [norm_box]; try reflexivity.
  - rewrite !raw_box_cont. cbv zeta. now rewrite sizes_norm, moof_pre_norm, (E cs IH).
  - now rewrite !raw_box_pre, sizes_norm, (E cs IH).
Qed.

Lemma erase_norm t : erase_rsv (norm_box t) = erase_rsv t.
Proof.
  induction t as [h l r|h cs IH|h p|h l r cs IH] using mbox_rect2; cbn [norm_box erase_rsv]; try reflexivity;
    now rewrite (map_norm_ext erase_rsv cs IH).
Qed.

(* ---------------------------------------------------------------- header facts *)
Lemma dec_hdr_facts bs h r : bytes_ok bs = true -> dec_hdr bs = Ok (h, r) ->
  lenN (h_name h) = 4 /\ h_size h < 18446744073709551616.
Proof.
  intros Hok H. unfold dec_hdr in H. run H; inj_pret H; cbn [h_name h_size]; (split; [assumption|]).
  - change (256 ^ N.of_nat 8) with 18446744073709551616 in *. assumption.
  - change (256 ^ N.of_nat 4) with 4294967296 in *. lia.
Qed.

Lemma large_mdat l : leaf_large l = true -> leaf_name l = n_mdat.
Proof. destruct l; cbn [leaf_large leaf_name]; intros H; try discriminate; reflexivity. Qed.

Lemma lenN_leaf_hdr l : lenN (leaf_name l) = 4 -> lenN (leaf_hdr l) = if leaf_large l then 16 else 8.
Proof.
  intros Hn. unfold leaf_hdr, enc_hdr, enc_hdr_large. destruct (leaf_large l); rewrite !lenN_app, !lenN_be_enc, Hn; reflexivity.
Qed.

Lemma lenN_length_eq {A B} (x : list A) (y : list B) : lenN x = lenN y -> length x = length y.
Proof. unfold lenN. lia. Qed.

(* the header bytes have the length the header records and are read back whatever follows them *)
Lemma dec_hdr_replay bs h r : bytes_ok bs = true -> dec_hdr bs = Ok (h, r) ->
  lenN (hdr_bytes h) = h_len h /\ forall r2, dec_hdr (hdr_bytes h ++ r2) = Ok (h, r2).
Proof.
  intros Hok H. split.
  - destruct (dec_hdr_facts _ _ _ Hok H) as [Hn _].
    destruct (dec_hdr_spec _ _ _ Hok H) as (_ & _ & [[Hl _]|[Hl _]]); unfold hdr_bytes, enc_hdr, enc_hdr_large; rewrite Hl;
      cbn [N.ltb N.compare Pos.compare Pos.compare_cont]; rewrite !lenN_app, !lenN_be_enc, Hn; reflexivity.
  - destruct (local_hdr _ _ _ H) as (x & Hx & Hrep). rewrite (dec_hdr_bytes _ _ _ Hok H) in Hx.
    apply app_inv_tail in Hx. now subst x.
Qed.

(* ---------------------------------------------------------------- the tree *)
Definition sbox (f : nat) : Prop :=
  forall bs t rest, bytes_ok bs = true -> decode_box f bs = Ok (t, rest) -> exact_box t = true ->
    exists enc, raw_box false t = Ok enc /\ lenN enc + lenN rest = lenN bs /\ lenN enc = size_box t /\
      forall r2, decode_box f (enc ++ r2) = Ok (norm_box t, r2).

Definition schildren (f : nat) : Prop :=
  forall target pos used bs cs rest, bytes_ok bs = true ->
    decode_children f target pos used bs = Ok (cs, rest) -> forallb exact_box cs = true ->
    exists enc, cat_encs (map (genc false) cs) = Ok enc /\ lenN enc + lenN rest = lenN bs /\
      lenN enc = sumN (map size_box cs) /\
      forall r2, decode_children f target pos used (enc ++ r2) = Ok (map norm_box cs, r2).

Definition sentries (f : nat) : Prop :=
  forall target pos bs cs rest, bytes_ok bs = true ->
    decode_entries f target pos bs = Ok (cs, rest) -> forallb exact_box cs = true ->
    exists enc, cat_encs (map (genc false) cs) = Ok enc /\ lenN enc + lenN rest = lenN bs /\
      lenN enc = sumN (map size_box cs) /\
      forall r2, decode_entries f target pos (enc ++ r2) = Ok (map norm_box cs, r2).

Lemma schildren_step f : sbox f -> schildren f -> schildren (S f).
Proof.
  intros IHb IHc target pos used bs cs rest Hok H Hex. cbn [decode_children] in H.
  destruct (target <? pos) eqn:Etp; [discriminate|].
  destruct (pos =? target) eqn:Ept.
  - injection H as <- <-. exists []. cbn [map cat_encs fold_right sumN]. repeat split; try reflexivity.
    intros r2. cbn [decode_children app map]. now rewrite Etp, Ept.
  - destruct (decode_box f bs) as [[c r]| | |] eqn:Eb; try discriminate.
    destruct (negb (pos + size_box c =? used + (lenN bs - lenN r))) eqn:Echk; [discriminate|].
    destruct (decode_children f target (pos + size_box c) (used + (lenN bs - lenN r)) r) as [[cs' r']| | |] eqn:Ec;
      try discriminate.
    injection H as <- <-. cbn [forallb] in Hex. apply andb_true_iff in Hex. destruct Hex as [Hc Hcs].
    destruct (proj1 (tree_both f) _ _ _ Hok Eb Hc) as (_ & _ & _ & Hokr).
    destruct (IHb _ _ _ Hok Eb Hc) as (e1 & He1 & Hl1 & Hs1 & Hrep1).
    destruct (IHc _ _ _ _ _ _ Hokr Ec Hcs) as (e2 & He2 & Hl2 & Hs2 & Hrep2).
    exists (e1 ++ e2). split; [exact (cat_encs_cons _ _ _ _ _ He1 He2)|]. rewrite lenN_app. cbn [map sumN].
    split; [lia|]. split; [lia|].
    intros r2. cbn [decode_children]. rewrite Etp, Ept. rewrite <- app_assoc, Hrep1. rewrite size_norm.
    replace (lenN (e1 ++ e2 ++ r2) - lenN (e2 ++ r2)) with (lenN bs - lenN r) by (rewrite !lenN_app; lia).
    rewrite Echk, Hrep2. reflexivity.
Qed.

Lemma sentries_step f : sbox f -> sentries f -> sentries (S f).
Proof.
  intros IHb IHe target pos bs cs rest Hok H Hex. cbn [decode_entries] in H.
  destruct (target <=? pos) eqn:Etp.
  - injection H as <- <-. exists []. cbn [map cat_encs fold_right sumN]. repeat split; try reflexivity.
    intros r2. cbn [decode_entries app map]. now rewrite Etp.
  - destruct (decode_box f bs) as [[c r]| | |] eqn:Eb; try discriminate.
    destruct (decode_entries f target (pos + size_box c) r) as [[cs' r']| | |] eqn:Ec; try discriminate.
    injection H as <- <-. cbn [forallb] in Hex. apply andb_true_iff in Hex. destruct Hex as [Hc Hcs].
    destruct (proj1 (tree_both f) _ _ _ Hok Eb Hc) as (_ & _ & _ & Hokr).
    destruct (IHb _ _ _ Hok Eb Hc) as (e1 & He1 & Hl1 & Hs1 & Hrep1).
    destruct (IHe _ _ _ _ _ Hokr Ec Hcs) as (e2 & He2 & Hl2 & Hs2 & Hrep2).
    exists (e1 ++ e2). split; [exact (cat_encs_cons _ _ _ _ _ He1 He2)|]. rewrite lenN_app. cbn [map sumN].
    split; [lia|]. split; [lia|].
    intros r2. cbn [decode_entries]. rewrite Etp. rewrite <- app_assoc, Hrep1. rewrite size_norm, Hrep2. reflexivity.
Qed.

(* ---------------------------------------------------------------- the look-ahead of DecodeMetaSR *)
(* the header a decoded box remembers, and the eight bytes it was read from *)
Definition box_hdr (t : mbox) : hdr :=
  match t with MLeaf h _ _ => h | MCont h _ => h | MUnknown h _ => h | MPre h _ _ _ => h end.
Definition hdr8 (h : hdr) : list N := (if h_len h =? 8 then be_enc 4 (h_size h) else be_enc 4 1) ++ h_name h.

Lemma box_hdr_norm t : box_hdr (norm_box t) = box_hdr t.
Proof. destruct t; reflexivity. Qed.

Lemma firstn_exact {A} (x r : list A) n : length x = n -> firstn n (x ++ r) = x.
Proof. intros <-. rewrite firstn_app, Nat.sub_diag, firstn_all. cbn [firstn]. apply app_nil_r. Qed.

Lemma decode_box_hdr f bs t r : decode_box f bs = Ok (t, r) -> exists h r0, dec_hdr bs = Ok (h, r0) /\ box_hdr t = h.
Proof.
  destruct f as [|f]; cbn [decode_box]; [discriminate|]. intros H. apply decode_box_S in H. destruct H as (h & r0 & Eh & _ & D).
  exists h, r0. split; [exact Eh|]. now destruct D.
Qed.

Lemma rcat_ok (a b : res (list N)) e : rcat a b = Ok e -> exists x y, a = Ok x /\ b = Ok y /\ e = x ++ y.
Proof. destruct a as [x| | |], b as [y| | |]; cbn [rcat]; try discriminate. intros H. injection H as <-. now exists x, y. Qed.

(* the header the encoders write, as a prefix of their output *)
Definition hdr_of_raw (t : mbox) : list N :=
  match t with
  | MLeaf _ l _ => leaf_hdr l
  | MCont h cs => enc_hdr (h_name h) (8 + sumN (map size_box cs))
  | MUnknown h _ => if 8 <? h_len h then enc_hdr_large (h_name h) (h_size h) else enc_hdr (h_name h) (h_size h)
  | MPre _ l _ cs => enc_hdr (leaf_name l) (size_leaf l + sumN (map size_box cs))
  end.
Lemma raw_starts keep t enc : raw_box keep t = Ok enc -> exists tl, enc = hdr_of_raw t ++ tl.
Proof.
  destruct t as [h l r|h cs|h p|h l r cs]; cbn [hdr_of_raw].
  - cbn [raw_box]. unfold raw_leaf. destruct (body_leaf l (if keep then r else dflt_rsv l)); try discriminate.
    intros H. injection H as <-. eexists. reflexivity.
  - rewrite raw_box_cont. cbv zeta. intros H.
    destruct (bytes_eqb (h_name h) n_moof); [destruct (moof_pre cs); try discriminate|];
      destruct (rcat_ok _ _ _ H) as (x & y & Hx & _ & ->); injection Hx as <-; eexists; reflexivity.
  - cbn [raw_box]. intros H. injection H as <-. eexists. reflexivity.
  - rewrite raw_box_pre. intros H. destruct (rcat_ok _ _ _ H) as (x & y & Hx & _ & ->). injection Hx as <-. eexists. reflexivity.
Qed.

(* an exact decoded box is written back under the header it was read with *)
Lemma exact_hdr f bs h r t rest : bytes_ok bs = true -> dec_hdr bs = Ok (h, r) -> dispatch f h r t rest ->
  exact_box t = true -> hdr_of_raw t = hdr_bytes h.
Proof.
  intros Hok Eh D Hex. pose proof (decoded_name _ _ _ _ _ D) as Hn. pose proof (exact_size _ _ _ _ _ _ Hok Eh D Hex) as Hs.
  destruct D; cbn [hdr_of_raw box_name size_box] in *.
  - apply leaf_hdr_bytes; [exact Hn|apply (exact_leaf _ _ _ Hex)|now symmetry].
  - destruct (exact_pre _ _ _ _ Hex) as (Hl & _). now rewrite Hn, Hs, hdr_bytes_compact.
  - destruct (exact_cont _ _ Hex) as (Hl & _). now rewrite Hs, hdr_bytes_compact.
  - reflexivity.
Qed.

Lemma hdr_bytes_hdr8 h : h_len h = 8 \/ h_len h = 16 -> exists x, hdr_bytes h = hdr8 h ++ x.
Proof.
  unfold hdr_bytes, hdr8, enc_hdr, enc_hdr_large. intros [-> | ->].
  - exists []. symmetry. apply app_nil_r.
  - exists (be_enc 8 (h_size h)). apply app_assoc.
Qed.

(* re-encoding an exact decoded box starts with the eight bytes the box was read from (size field or the large-size
   marker, and the name): what DecodeMetaSR looks at in its first child *)
Lemma reenc_hdr f bs t rest enc : bytes_ok bs = true -> decode_box f bs = Ok (t, rest) -> exact_box t = true ->
  raw_box false t = Ok enc -> exists hd tl1 tl2, length hd = 8%nat /\ bs = hd ++ tl1 /\ enc = hd ++ tl2.
Proof.
  intros Hok H Hex Henc. destruct f as [|f]; cbn [decode_box] in H; [discriminate|].
  apply decode_box_S in H. destruct H as (h & r & Eh & _ & D).
  destruct (raw_starts _ _ _ Henc) as (tl & ->). rewrite (exact_hdr _ _ _ _ _ _ Hok Eh D Hex), (dec_hdr_bytes _ _ _ Hok Eh).
  destruct (dec_hdr_facts _ _ _ Hok Eh) as [Hnm _].
  destruct (hdr_bytes_hdr8 h) as (x & ->). { destruct (dec_hdr_spec _ _ _ Hok Eh) as (_ & _ & [[? _]|[? _]]); auto. }
  exists (hdr8 h), (x ++ r), (x ++ tl). rewrite <- !app_assoc. repeat split.
  unfold hdr8. rewrite app_length. unfold lenN in Hnm. destruct (h_len h =? 8); rewrite length_be_enc; lia.
Qed.

Lemma children_reenc_hd f target bs cs r encc r2 : bytes_ok bs = true -> decode_children f target 0 0 bs = Ok (cs, r) ->
  forallb exact_box cs = true -> cat_encs (map (genc false) cs) = Ok encc -> 0 < target ->
  firstn 8 (encc ++ r2) = firstn 8 bs.
Proof.
  intros Hok H Hex Henc Ht. destruct f as [|f]; cbn [decode_children] in H; [discriminate|].
  replace (target <? 0) with false in H by (symmetry; apply N.ltb_ge; lia).
  replace (0 =? target) with false in H by (symmetry; apply N.eqb_neq; lia).
  destruct (decode_box f bs) as [[c r1]| | |] eqn:Eb; try discriminate.
  destruct (negb (0 + size_box c =? 0 + (lenN bs - lenN r1))); [discriminate|].
  destruct (decode_children f target (0 + size_box c) (0 + (lenN bs - lenN r1)) r1) as [[cs' r3]| | |]; try discriminate.
  injection H as <- _. cbn [map cat_encs fold_right genc snd forallb] in Henc, Hex.
  apply andb_true_iff in Hex. destruct Hex as [Hc _].
  destruct (rcat_ok _ _ _ Henc) as (e1 & e2 & He1 & _ & ->).
  destruct (reenc_hdr _ _ _ _ _ Hok Eb Hc He1) as (hd & tl1 & tl2 & Hl & -> & ->).
  rewrite <- !app_assoc. now rewrite !firstn_exact.
Qed.

Lemma skipn_exact {A} (x r : list A) n : length x = n -> skipn n (x ++ r) = r.
Proof. intros <-. rewrite skipn_app, skipn_all, Nat.sub_diag. reflexivity. Qed.
Lemma f4s4_of_f8 (x y : list N) : firstn 8 x = firstn 8 y -> firstn 4 (skipn 4 x) = firstn 4 (skipn 4 y).
Proof. intros E. rewrite !(firstn_skipn_comm 4 4). cbn [Nat.add]. now rewrite E. Qed.
Lemma f4_of_f8 (x y : list N) : firstn 8 x = firstn 8 y -> firstn 4 x = firstn 4 y.
Proof.
  intros E. assert (H : forall z : list N, firstn 4 z = firstn 4 (firstn 8 z)) by (intros z; rewrite firstn_firstn; reflexivity).
  now rewrite (H x), (H y), E.
Qed.

Lemma meta_qt_ext h r1 r2 :
  (bytes_eqb (h_name h) n_meta = true -> 8 <= payload_len h -> firstn 4 (skipn 4 r1) = firstn 4 (skipn 4 r2)) ->
  meta_qt h r1 = meta_qt h r2.
Proof.
  intros H. unfold meta_qt. destruct (bytes_eqb (h_name h) n_meta); [|reflexivity].
  destruct (8 <=? payload_len h) eqn:E; [|reflexivity]. apply N.leb_le in E. now rewrite (H eq_refl E).
Qed.
Lemma pre_lookup_ext h r1 r2 : meta_qt h r1 = meta_qt h r2 -> pre_lookup h r1 = pre_lookup h r2.
Proof. unfold pre_lookup. now intros ->. Qed.
Lemma cont_like_ext h r1 r2 : meta_qt h r1 = meta_qt h r2 -> cont_like h r1 = cont_like h r2.
Proof. unfold cont_like. now intros ->. Qed.
Lemma lookup_meta_pre : lookup n_meta pre_table = Some (dec_fullonly, PStrict 12).
Proof. reflexivity. Qed.
Lemma bytes_ok_app_l (x y : list N) : bytes_ok (x ++ y) = true -> bytes_ok x = true.
Proof. unfold bytes_ok. rewrite forallb_app. intros H. apply andb_true_iff in H. tauto. Qed.

Lemma lookup_mdat_leaf : lookup n_mdat leaf_table <> None.
Proof. vm_compute. discriminate. Qed.

(* ISO meta: four bytes of version and flags in front of the first child *)
Lemma fullonly_skip h r l rsv r1 : dec_fullonly h r = Ok ((l, rsv), r1) -> skipn 4 r = r1 /\ size_leaf l = 12.
Proof.
  unfold dec_fullonly. intros H. apply pbind_ok in H. destruct H as (vf & r0 & E & H). inj_pret H. split; [|reflexivity].
  destruct (rd_inv _ _ _ _ E) as (x & -> & Hl & _). now apply skipn_exact.
Qed.

Lemma sbox_step f : sbox f -> schildren f -> sentries f -> sbox (S f).
Proof.
  intros IHb IHc IHe bs t rest Hok H Hex. apply decode_box_S in H. destruct H as (h & r & Eh & Eroom & D).
  destruct (dec_hdr_spec _ _ _ Hok Eh) as (Hokr & Hle & _). destruct (dec_hdr_facts _ _ _ Hok Eh) as (Hnm & Hmax).
  destruct (dec_hdr_replay _ _ _ Hok Eh) as (Hlh & Hreph).
  pose proof (decoded_name _ _ _ _ _ D) as Hname. pose proof (exact_size _ _ _ _ _ _ Hok Eh D Hex) as Hsz.
  pose proof (exact_hdr _ _ _ _ _ _ Hok Eh D Hex) as Hhd.
  (* it is enough to give the body the encoders write behind that header and to replay the dispatch on it: the
     header is read back, and the body fills the announced size *)
  enough (exists body, raw_box false t = Ok (hdr_bytes h ++ body) /\ lenN body + lenN rest = lenN r /\
            lenN body + h_len h = h_size h /\ forall r2, dispatch f h (body ++ r2) (norm_box t) r2)
    as (body & He & Hl & Hs & Hrep).
  { exists (hdr_bytes h ++ body). split; [exact He|]. rewrite (dec_hdr_bytes _ _ _ Hok Eh), !lenN_app, Hlh, Hsz.
    split; [lia|]. split; [lia|]. intros r2. apply decode_box_S. exists h, (body ++ r2). rewrite <- app_assoc.
    split; [apply Hreph|]. split; [|apply Hrep]. apply andb_false_iff. left. apply N.ltb_ge. rewrite lenN_app. lia. }
  destruct D as [d l rsv r' El Ed|d lk l rsv r1 cs r' El Ep Ed K|cs r' El Ep Ecl Ec Ee|p r' El Ep Ecl Eu];
    cbn [norm_box box_name hdr_of_raw] in *.
  - (* leaf: print-then-parse of its table entry *)
    destruct (exact_leaf _ _ _ Hex) as (Hlen & Hsl & Hg).
    assert (Hroom : leaf_name l <> n_mdat -> h_size h <= lenN r + h_len h).
    { rewrite Hname. intros Hne. destruct (bytes_eqb (h_name h) n_mdat) eqn:Em; [now apply bytes_eqb_eq in Em|].
      rewrite andb_true_r in Eroom. now apply N.ltb_ge. }
    destruct (lookup_Forall _ _ _ _ leaf_table_stable El _ _ _ _ _ Hokr Hnm Ed Hg (conj Hsl (conj Hlen Hmax)) Hroom)
      as (b' & Hb' & Hlens & Hsize & Hrep).
    exists b'. cbn [raw_box]. unfold raw_leaf. rewrite Hb', Hhd.
    split; [reflexivity|]. split; [exact Hlens|]. split; [now rewrite Hlen, Hsl|]. intros r2. now apply (DLeaf _ _ _ d).
  - (* prefixed box: print-then-parse of the prefix, then the children *)
    destruct (exact_pre _ _ _ _ Hex) as (Hlen & Hsp & Hg & Hcs). pose proof (pre_lookup_some _ _ _ Ep) as Ept.
    destruct (proj1 (lookup_Forall _ _ _ _ pre_table_ok Ept) _ _ _ _ _ Hokr Ed Hg) as (_ & _ & _ & Hokr1).
    destruct (lookup_Forall _ _ _ _ pre_table_stable Ept _ _ _ _ _ Hokr Hnm Ed Hg) as (b' & Hb' & Hlens & Hsize & Hrep).
    assert (Hnl : leaf_large l = false).
    { destruct (leaf_large l) eqn:E; [|reflexivity]. apply large_mdat in E. exfalso. apply lookup_mdat_leaf. now rewrite <- E, Hname. }
    rewrite Hnl in Hsize.
    assert (Hkids : exists encc, cat_encs (map (genc false) cs) = Ok encc /\ lenN encc + lenN r' = lenN r1 /\
              lenN encc = sumN (map size_box cs) /\ forall r2, kids f h l (encc ++ r2) (map norm_box cs) r2 lk).
    { destruct K as [off Eo Ec En|start Ec].
      - destruct (IHc _ _ _ _ _ _ Hokr1 Ec Hcs) as (encc & ? & ? & ? & Hr). exists encc. repeat split; try assumption.
        intros r2. constructor; [assumption|apply Hr|]. unfold lenN. now rewrite map_length.
      - destruct (IHe _ _ _ _ _ Hokr1 Ec Hcs) as (encc & ? & ? & ? & Hr). exists encc. repeat split; try assumption.
        intros r2. constructor. apply Hr. }
    destruct Hkids as (encc & Henc & Hlc & Hsc & Hrepc).
    exists (b' ++ encc). rewrite raw_box_pre, Hb', Henc, Hhd, lenN_app.
    split; [reflexivity|]. split; [lia|]. split; [lia|].
    intros r2. rewrite <- app_assoc. apply (DPre _ _ _ d lk _ _ (encc ++ r2)); [exact El| |apply Hrep|apply Hrepc].
    rewrite <- Ep. apply pre_lookup_ext, meta_qt_ext. intros Hm Hpl. apply bytes_eqb_eq in Hm.
    (* ISO meta: the look-ahead sees the first child behind version and flags, in the input and in the re-encoding *)
    rewrite Hm, lookup_meta_pre in Ept. injection Ept as <- <-. inversion K as [off _ Ec _|]; subst off.
    destruct (fullonly_skip _ _ _ _ _ Ed) as [-> Hs12]. rewrite skipn_exact by (unfold lenN in Hsize; lia).
    apply f4_of_f8, (children_reenc_hd _ _ _ _ _ _ r2 Hokr1 Ec Hcs Henc). unfold payload_len in Hpl. lia.
  - (* container *)
    destruct (exact_cont _ _ Hex) as (Hlen & Hcs).
    destruct (IHc _ _ _ _ _ _ Hokr Ec Hcs) as (encc & Henc & Hlc & Hsc & Hrepc).
    exists encc. rewrite (raw_cont_exact _ _ _ Hex), Henc, Hhd.
    split; [reflexivity|]. split; [exact Hlc|]. split; [cbn [size_box] in Hsz; lia|].
    intros r2. assert (Hq : meta_qt h (encc ++ r2) = meta_qt h r).
    { apply meta_qt_ext. intros _ Hpl. apply f4s4_of_f8, (children_reenc_hd _ _ _ _ _ _ r2 Hokr Ec Hcs Henc).
      unfold payload_len in Hpl. lia. }
    apply DCont; [exact El|now rewrite (pre_lookup_ext _ _ _ Hq)|now rewrite (cont_like_ext _ _ _ Hq)|apply Hrepc|now rewrite edts_norm].
  - (* unknown *)
    destruct (rdB_spec _ _ _ _ Hokr Eu) as (-> & Hlp & _ & _). unfold payload_len in Hlp.
    exists p. split; [reflexivity|]. split; [now rewrite lenN_app|]. split; [lia|].
    intros r2. assert (Hq : meta_qt h (p ++ r2) = meta_qt h (p ++ r')).
    { apply meta_qt_ext. intros _ Hpl. apply f4s4_of_f8. unfold payload_len in Hpl.
      assert (Hp8 : (8 <= length p)%nat) by (unfold lenN in Hlp; lia).
      rewrite !firstn_app. now replace (8 - length p)%nat with 0%nat by lia. }
    apply DUnknown; [exact El|now rewrite (pre_lookup_ext _ _ _ Hq)|now rewrite (cont_like_ext _ _ _ Hq)|].
    unfold payload_len. rewrite <- Hlp. apply rdB_app.
Qed.

Lemma stable_all f : sbox f /\ schildren f /\ sentries f.
Proof.
  induction f as [|f (IHb & IHc & IHe)].
  - repeat split; intros until 1; cbn; discriminate.
  - repeat split; [now apply sbox_step|now apply schildren_step|now apply sentries_step].
Qed.

(* decode bs accepted with an exact tree: the Go encoders' bytes decode to norm_box t and encode to themselves *)
Lemma fixpoint bs t : bytes_ok bs = true -> decode bs = Ok (t, []) -> exact_box t = true ->
  exists enc, raw_box false t = Ok enc /\ lenN enc = lenN bs /\ lenN enc = size_box t /\
    decode enc = Ok (norm_box t, []) /\ erase_rsv (norm_box t) = erase_rsv t /\ raw_box false (norm_box t) = Ok enc.
Proof.
  intros Hok H Hex. unfold decode in H.
  destruct (proj1 (stable_all _) _ _ _ Hok H Hex) as (enc & He & Hl & Hs & Hrep).
  change (lenN (@nil N)) with 0 in Hl. exists enc. split; [exact He|]. split; [lia|]. split; [exact Hs|].
  split; [|split; [apply erase_norm|now rewrite raw_norm]].
  unfold decode. rewrite (lenN_length_eq enc bs) by lia. specialize (Hrep []). now rewrite app_nil_r in Hrep.
Qed.

(* a file in box-tree mode *)
Lemma seq_fixpoint f : forall bs ts, bytes_ok bs = true -> decode_seq f bs = Ok ts -> forallb exact_box ts = true ->
  exists enc, encode_seq false ts = Ok enc /\ lenN enc = lenN bs /\ decode_seq f enc = Ok (map norm_box ts).
Proof.
  apply (decode_seq_ind (fun f bs ts => exists enc, encode_seq false ts = Ok enc /\ lenN enc = lenN bs /\
                                           decode_seq f enc = Ok (map norm_box ts))).
  { intros f0. exists []. repeat split. }
  intros f0 bs t r ts Hok Hne Ed Ht Hokr (e2 & He2 & Hl2 & Hrep2).
  destruct (proj1 (stable_all _) _ _ _ Hok Ed Ht) as (e1 & He1 & Hl1 & _ & Hrep1).
  exists (e1 ++ e2). cbn [encode_seq map]. rewrite He1, He2, lenN_app. split; [reflexivity|]. split; [lia|].
  cbn [decode_seq]. destruct (e1 ++ e2) as [|c0 t0] eqn:Ee.
  { exfalso. apply (f_equal (@lenN N)) in Ee. rewrite lenN_app in Ee. destruct bs; [now apply Hne|]. rewrite lenN_cons in Hl1.
    change (lenN (@nil N)) with 0 in Ee. lia. }
  rewrite <- Ee. unfold decode. rewrite (lenN_length_eq (e1 ++ e2) bs) by (rewrite lenN_app; lia).
  now rewrite Hrep1, Hrep2.
Qed.

Lemma encode_seq_norm ts : encode_seq false (map norm_box ts) = encode_seq false ts.
Proof. induction ts as [|t ts IH]; [reflexivity|]. cbn [map encode_seq]. now rewrite raw_norm, IH. Qed.

Lemma file_fixpoint bs ts : bytes_ok bs = true -> decode_file bs = Ok ts -> forallb exact_box ts = true ->
  exists enc, encode_seq false ts = Ok enc /\ lenN enc = lenN bs /\ decode_file enc = Ok (map norm_box ts) /\
    encode_seq false (map norm_box ts) = Ok enc.
Proof.
  intros Hok H Hex. unfold decode_file in H. destruct (seq_fixpoint _ _ _ Hok H Hex) as (enc & He & Hl & Hrep).
  exists enc. split; [exact He|]. split; [exact Hl|]. split; [|now rewrite encode_seq_norm].
  unfold decode_file. now rewrite (lenN_length_eq enc bs) by exact Hl.
Qed.

(* ---------------------------------------------------------------- Encode / EncodeSW succeed on exact decoded trees *)
Lemma dec_hdr_compact bs h r : bytes_ok bs = true -> dec_hdr bs = Ok (h, r) -> h_len h = 8 -> h_size h < 4294967296.
Proof.
  intros Hok H Hl. unfold dec_hdr in H. run H; inj_pret H; cbn [h_len h_size] in *;
    change (256 ^ N.of_nat 4) with 4294967296 in *; lia.
Qed.

Lemma caps_leaf h l r : (forall b, raw_leaf l (dflt_rsv l) = Ok b -> lenN b <= size_leaf l) -> caps_ok (MLeaf h l r) = true.
Proof.
  intros H. cbn [caps_ok]. destruct (raw_leaf l (dflt_rsv l)) as [b| | |] eqn:E; try (destruct l; reflexivity).
  specialize (H b eq_refl). destruct l; try reflexivity; now apply N.leb_le.
Qed.

Definition fbox (f : nat) : Prop :=
  forall bs t rest, bytes_ok bs = true -> decode_box f bs = Ok (t, rest) -> exact_box t = true ->
    enc_fits t = true /\ caps_ok t = true.
Definition fchildren (f : nat) : Prop :=
  forall target pos used bs cs rest, bytes_ok bs = true ->
    decode_children f target pos used bs = Ok (cs, rest) -> forallb exact_box cs = true ->
    forallb enc_fits cs = true /\ forallb caps_ok cs = true.
Definition fentries (f : nat) : Prop :=
  forall target pos bs cs rest, bytes_ok bs = true ->
    decode_entries f target pos bs = Ok (cs, rest) -> forallb exact_box cs = true ->
    forallb enc_fits cs = true /\ forallb caps_ok cs = true.

Lemma fchildren_step f : fbox f -> fchildren f -> fchildren (S f).
Proof.
  intros IHb IHc target pos used bs cs rest Hok H Hex. cbn [decode_children] in H.
  destruct (target <? pos); [discriminate|]. destruct (pos =? target); [injection H as <- <-; now split|].
  destruct (decode_box f bs) as [[c r]| | |] eqn:Eb; try discriminate.
  destruct (negb (pos + size_box c =? used + (lenN bs - lenN r))); [discriminate|].
  destruct (decode_children f target (pos + size_box c) (used + (lenN bs - lenN r)) r) as [[cs' r']| | |] eqn:Ec; try discriminate.
  injection H as <- <-. cbn [forallb] in *. apply andb_true_iff in Hex. destruct Hex as [Hc Hcs].
  destruct (proj1 (tree_both f) _ _ _ Hok Eb Hc) as (_ & _ & _ & Hokr).
  destruct (IHb _ _ _ Hok Eb Hc) as [H1 H2]. destruct (IHc _ _ _ _ _ _ Hokr Ec Hcs) as [H3 H4].
  now rewrite H1, H2, H3, H4.
Qed.

Lemma fentries_step f : fbox f -> fentries f -> fentries (S f).
Proof.
  intros IHb IHe target pos bs cs rest Hok H Hex. cbn [decode_entries] in H.
  destruct (target <=? pos); [injection H as <- <-; now split|].
  destruct (decode_box f bs) as [[c r]| | |] eqn:Eb; try discriminate.
  destruct (decode_entries f target (pos + size_box c) r) as [[cs' r']| | |] eqn:Ec; try discriminate.
  injection H as <- <-. cbn [forallb] in *. apply andb_true_iff in Hex. destruct Hex as [Hc Hcs].
  destruct (proj1 (tree_both f) _ _ _ Hok Eb Hc) as (_ & _ & _ & Hokr).
  destruct (IHb _ _ _ Hok Eb Hc) as [H1 H2]. destruct (IHe _ _ _ _ _ Hokr Ec Hcs) as [H3 H4].
  now rewrite H1, H2, H3, H4.
Qed.

Lemma fbox_step f : fbox f -> fchildren f -> fentries f -> fbox (S f).
Proof.
  intros IHb IHc IHe bs t rest Hok H Hex.
  (* the size of the whole re-encoding is already known from the fixed-point induction *)
  destruct (proj1 (stable_all (S f)) _ _ _ Hok H Hex) as (enc & Henc & _ & Hsz & _).
  apply decode_box_S in H. destruct H as (h & r & Eh & _ & D).
  destruct (dec_hdr_spec _ _ _ Hok Eh) as (Hokr & Hle & Hshape). pose proof (dec_hdr_compact _ _ _ Hok Eh) as Hcompact.
  pose proof (exact_size _ _ _ _ _ _ Hok Eh D Hex) as Hs.
  destruct D as [d l rsv r' El Ed|d lk l rsv r1 cs r' El Ep Ed K|cs r' El Ep Ecl Ec Ee|p r' El Ep Ecl Eu];
    cbn [enc_fits size_box] in *; [|cbn [caps_ok]..].
  - destruct (exact_leaf _ _ _ Hex) as (Hlen & _). split.
    + destruct (leaf_large l); [reflexivity|]. apply N.ltb_lt. rewrite Hs. now apply Hcompact.
    + apply caps_leaf. intros b Hb. cbn [raw_box] in Henc. rewrite Henc in Hb. injection Hb as <-. lia.
  - destruct (exact_pre _ _ _ _ Hex) as (Hlen & _ & Hg & Hcs).
    destruct (proj1 (lookup_Forall _ _ _ _ pre_table_ok (pre_lookup_some _ _ _ Ep)) _ _ _ _ _ Hokr Ed Hg) as (_ & _ & _ & Hokr1).
    assert (Hk : forallb enc_fits cs = true /\ forallb caps_ok cs = true).
    { destruct K as [off _ Ec _|start Ec]; [exact (IHc _ _ _ _ _ _ Hokr1 Ec Hcs)|exact (IHe _ _ _ _ _ Hokr1 Ec Hcs)]. }
    destruct Hk as [-> ->]. rewrite Hs, andb_true_r. split; [|reflexivity]. apply N.ltb_lt. now apply Hcompact.
  - destruct (exact_cont _ _ Hex) as (Hlen & Hcs). destruct (IHc _ _ _ _ _ _ Hokr Ec Hcs) as [-> ->].
    rewrite Hs, andb_true_r. split; [|reflexivity]. apply N.ltb_lt. now apply Hcompact.
  - destruct (rdB_spec _ _ _ _ Hokr Eu) as (_ & Hlp & _ & _). unfold payload_len in Hlp.
    destruct Hshape as [[Hl _]|[Hl _]]; rewrite Hl; cbn [N.ltb N.compare Pos.compare Pos.compare_cont orb].
    + split; [apply N.ltb_lt; exact (Hcompact Hl)|apply N.leb_le; lia].
    + split; [reflexivity|apply N.leb_le; lia].
Qed.

Lemma fits_all f : fbox f /\ fchildren f /\ fentries f.
Proof.
  induction f as [|f (IHb & IHc & IHe)].
  - split; [|split].
    + intros bs t rest _ H. discriminate H.
    + intros target pos used bs cs rest _ H. discriminate H.
    + intros target pos bs cs rest _ H. discriminate H.
  - split; [|split]; [now apply fbox_step|now apply fchildren_step|now apply fentries_step].
Qed.

Lemma forallb_map_ext (f : mbox -> bool) cs : Forall (fun c => f (norm_box c) = f c) cs -> forallb f (map norm_box cs) = forallb f cs.
Proof. induction 1 as [|c t Hc _ IH]; [reflexivity|]. cbn [map forallb]. now rewrite Hc, IH. Qed.

Lemma enc_fits_norm t : enc_fits (norm_box t) = enc_fits t.
Proof.
  induction t as [h l r|h cs IH|h p|h l r cs IH] using mbox_rect2; cbn [norm_box enc_fits]; try reflexivity.
  - now rewrite sizes_norm, (forallb_map_ext enc_fits cs IH).
  - now rewrite sizes_norm, (forallb_map_ext enc_fits cs IH).
Qed.
Lemma caps_ok_norm t : caps_ok (norm_box t) = caps_ok t.
Proof.
  induction t as [h l r|h cs IH|h p|h l r cs IH] using mbox_rect2; cbn [norm_box caps_ok]; try reflexivity.
  - exact (forallb_map_ext caps_ok cs IH).
  - exact (forallb_map_ext caps_ok cs IH).
Qed.

(* ---------------------------------------------------------------- everything about one box: the raw encoder and the
   two encode paths of the Go API (Box.Encode and Box.EncodeSW) *)
Lemma fixpoint_full bs t : bytes_ok bs = true -> decode bs = Ok (t, []) -> exact_box t = true ->
  exists enc, raw_box false t = Ok enc /\ encode_w t = Ok enc /\ encode_sw t = Ok enc /\
    lenN enc = lenN bs /\ lenN enc = size_box t /\
    decode enc = Ok (norm_box t, []) /\ erase_rsv (norm_box t) = erase_rsv t /\
    raw_box false (norm_box t) = Ok enc /\ encode_w (norm_box t) = Ok enc /\ encode_sw (norm_box t) = Ok enc.
Proof.
  intros Hok H Hex. destruct (fixpoint _ _ Hok H Hex) as (enc & He & Hl & Hs & Hd & Her & Hn).
  destruct (proj1 (fits_all _) _ _ _ Hok H Hex) as [Hf Hc].
  exists enc. unfold encode_w, encode_sw. rewrite Hn, He, enc_fits_norm, caps_ok_norm, size_norm, Hf, Hc, <- Hs, N.leb_refl.
  repeat split; assumption.
Qed.

Lemma fixpoint_api bs t : bytes_ok bs = true -> decode bs = Ok (t, []) -> exact_box t = true ->
  exists enc, encode_w t = Ok enc /\ encode_sw t = Ok enc /\ lenN enc = lenN bs /\
    decode enc = Ok (norm_box t, []) /\ encode_w (norm_box t) = Ok enc /\ encode_sw (norm_box t) = Ok enc.
Proof.
  intros Hok H Hex. destruct (fixpoint_full _ _ Hok H Hex) as (enc & _ & Hw & Hsw & Hl & _ & Hd & _ & _ & Hw' & Hsw').
  now exists enc.
Qed.

(* File.Encode: `for _, b := range f.Children { b.Encode(w) }` *)
Fixpoint encode_seq_w (ts : list mbox) : res (list N) :=
  match ts with [] => Ok [] | t :: r => rcat (encode_w t) (encode_seq_w r) end.

Lemma encode_seq_w_fits ts : forallb (fun t => enc_fits t && caps_ok t) ts = true -> encode_seq_w ts = encode_seq false ts.
Proof.
  induction ts as [|t r IH]; [reflexivity|]. cbn [forallb encode_seq_w encode_seq]. intros H. apply andb_true_iff in H.
  destruct H as [Ht Hr]. rewrite (IH Hr). unfold encode_w. rewrite Ht. destruct (raw_box false t); reflexivity.
Qed.

Lemma seq_fits f : forall bs ts, bytes_ok bs = true -> decode_seq f bs = Ok ts -> forallb exact_box ts = true ->
  forallb (fun t => enc_fits t && caps_ok t) ts = true.
Proof.
  apply (decode_seq_ind (fun _ _ ts => forallb (fun t => enc_fits t && caps_ok t) ts = true)); [reflexivity|].
  intros _ bs t r ts Hok _ Ed Ht _ IH. destruct (proj1 (fits_all _) _ _ _ Hok Ed Ht) as [H1 H2].
  cbn [forallb]. now rewrite H1, H2.
Qed.

Lemma fits_norm_all ts : forallb (fun t => enc_fits t && caps_ok t) (map norm_box ts) = forallb (fun t => enc_fits t && caps_ok t) ts.
Proof. induction ts as [|t r IH]; [reflexivity|]. cbn [map forallb]. now rewrite enc_fits_norm, caps_ok_norm, IH. Qed.

Lemma file_fixpoint_full bs ts : bytes_ok bs = true -> decode_file bs = Ok ts -> forallb exact_box ts = true ->
  exists enc, encode_seq false ts = Ok enc /\ encode_seq_w ts = Ok enc /\ lenN enc = lenN bs /\
    decode_file enc = Ok (map norm_box ts) /\ encode_seq false (map norm_box ts) = Ok enc /\ encode_seq_w (map norm_box ts) = Ok enc.
Proof.
  intros Hok H Hex. destruct (file_fixpoint _ _ Hok H Hex) as (enc & He & Hl & Hd & Hn).
  unfold decode_file in H. pose proof (seq_fits _ _ _ Hok H Hex) as Hf.
  exists enc. rewrite (encode_seq_w_fits _ Hf), (encode_seq_w_fits (map norm_box ts)) by (now rewrite fits_norm_all).
  repeat split; assumption.
Qed.
