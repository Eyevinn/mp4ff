(* C01Leaf3Proofs.v — losslessness of the stage-3 leaf kinds and of the field prefixes of stsd, dref and the
   Visual/Audio sample entries (same shared tactic as C01LeafProofs). *)
From V.lib Require Import Base.
From V.c01 Require Import C01Codec C01Model C01LeafProofs C01Leaf2Proofs.

(* ---------------------------------------------------------------- strings *)
Lemma zt_spec bs : forall n s r, bytes_ok bs = true -> zt bs n = Ok (s, r) ->
  bs = s ++ [0] ++ r /\ bytes_ok r = true /\ forallb (fun c => negb (c =? 0)) s = true /\ lenN s < n.
Proof.
  induction bs as [|c t IH]; intros n s r Hok H; cbn [zt] in H.
  - destruct (n =? 0); discriminate.
  - destruct (n =? 0) eqn:En; [discriminate|]. apply N.eqb_neq in En.
    rewrite bytes_ok_cons in Hok. apply andb_true_iff in Hok. destruct Hok as [Hc Ht].
    destruct (c =? 0) eqn:E0.
    + injection H as <- <-. apply N.eqb_eq in E0. subst. repeat split; try assumption. cbn. lia.
    + destruct (zt t (n - 1)) as [[s' r']| | |] eqn:E; try discriminate. injection H as <- <-.
      destruct (IH _ _ _ Ht E) as (-> & Hr & Hnz & Hl). repeat split; try assumption.
      * cbn [forallb]. now rewrite E0, Hnz.
      * rewrite lenN_cons. lia.
Qed.

Lemma pz_spec bs : forall n s z r, bytes_ok bs = true -> pz bs n = Ok ((s, z), r) ->
  bs = s ++ (if z then [0] else []) ++ r /\ bytes_ok r = true /\ forallb (fun c => negb (c =? 0)) s = true /\
  (if z then lenN s < n else lenN s = n).
Proof.
  induction bs as [|c t IH]; intros n s z r Hok H; cbn [pz] in H.
  - destruct (n =? 0) eqn:En; [|discriminate]. injection H as <- <- <-. apply N.eqb_eq in En. now repeat split.
  - destruct (n =? 0) eqn:En.
    + injection H as <- <- <-. apply N.eqb_eq in En. now repeat split.
    + apply N.eqb_neq in En. rewrite bytes_ok_cons in Hok. apply andb_true_iff in Hok. destruct Hok as [Hc Ht].
      destruct (c =? 0) eqn:E0.
      * injection H as <- <- <-. apply N.eqb_eq in E0. subst. repeat split; try assumption. cbn. lia.
      * destruct (pz t (n - 1)) as [[[s' z'] r']| | |] eqn:E; try discriminate. injection H as <- <- <-.
        destruct (IH _ _ _ _ Ht E) as (-> & Hr & Hnz & Hl). repeat split; try assumption.
        -- cbn [forallb]. now rewrite E0, Hnz.
        -- rewrite lenN_cons. destruct z'; lia.
Qed.

(* ---------------------------------------------------------------- plain field lists *)
Lemma lossless_stsd : leaf_lossless dec_stsd.
Proof. intros h r l rsv r' Hok H G. unfold dec_stsd in H. run H. inj_pret H. finish_lossless. Qed.
Lemma lossless_dref : leaf_lossless dec_dref.
Proof. intros h r l rsv r' Hok H G. unfold dec_dref in H. run H. inj_pret H. finish_lossless. Qed.
Lemma lossless_btrt : leaf_lossless dec_btrt.
Proof. intros h r l rsv r' Hok H G. unfold dec_btrt in H. run H. inj_pret H. finish_lossless. Qed.
Lemma lossless_pasp : leaf_lossless dec_pasp.
Proof. intros h r l rsv r' Hok H G. unfold dec_pasp in H. run H. inj_pret H. finish_lossless. Qed.
Lemma lossless_clap : leaf_lossless dec_clap.
Proof. intros h r l rsv r' Hok H G. unfold dec_clap in H. run H. inj_pret H. finish_lossless. Qed.
Lemma lossless_cslg : leaf_lossless dec_cslg.
Proof.
  intros h r l rsv r' Hok H G. unfold dec_cslg in H. run H. inj_pret H. cbn [body_leaf].
  eexists; split; [reflexivity|]; split; [|assumption].
  rewrite vf_join_split by assumption. repeat rewrite <- app_assoc. reflexivity.
Qed.
Lemma lossless_audio : leaf_lossless dec_audio.
Proof. intros h r l rsv r' Hok H G. unfold dec_audio in H. run H. inj_pret H. finish_lossless. Qed.

Lemma lossless_visual : leaf_lossless dec_visual.
Proof.
  intros h r l rsv r' Hok H G. unfold dec_visual in H. run H. inj_pret H.
  cbn [body_leaf chunk nth]. eexists; split; [reflexivity|]; split; [|assumption].
  try match goal with Hl : lenN ?x = ?c |- context [be_enc 1 (lenN ?x)] => rewrite Hl end.
  repeat rewrite <- app_assoc. reflexivity.
Qed.

(* ---------------------------------------------------------------- url *)
Lemma lossless_url : leaf_lossless dec_url.
Proof.
  intros h r l rsv r' Hok H G. unfold dec_url in H. run H.
  - apply pbind_ok in H. destruct H as ([s z] & r1 & E & H). unfold rd_pz in E. inj_pret H.
    match type of E with pz ?x _ = _ => match goal with Hk : bytes_ok x = true |- _ =>
      destruct (pz_spec _ _ _ _ _ Hk E) as (-> & Hr & _ & _) end end. cbn [body_leaf fst snd].
    eexists; split; [reflexivity|]; split; [|assumption].
    rewrite vf_join_split by assumption. destruct z; cbn [negb]; repeat rewrite <- app_assoc; reflexivity.
  - inj_pret H. finish_lossless.
Qed.

(* ---------------------------------------------------------------- schm *)
Lemma lossless_schm : leaf_lossless dec_schm.
Proof.
  intros h r l rsv r' Hok H G. unfold dec_schm in H. run H.
  - apply pbind_ok in H. destruct H as (s & r1 & E & H). unfold rd_zt in E. inj_pret H.
    match type of E with zt ?x _ = _ => match goal with Hk : bytes_ok x = true |- _ =>
      destruct (zt_spec _ _ _ _ Hk E) as (-> & Hr & _ & _) end end. cbn [body_leaf]. rewrite Hc.
    eexists; split; [reflexivity|]; split; [|assumption].
    rewrite vf_join_split by assumption. repeat rewrite <- app_assoc. reflexivity.
  - inj_pret H. cbn [body_leaf]. rewrite Hc.
    eexists; split; [reflexivity|]; split; [|assumption].
    rewrite vf_join_split by assumption. repeat rewrite <- app_assoc. reflexivity.
Qed.

(* ---------------------------------------------------------------- colr *)
Lemma full_range_join b : b < 256 ^ N.of_nat 1 -> (if 128 <=? b then 128 else 0) + b mod 128 = b.
Proof.
  change (256 ^ N.of_nat 1) with 256. intros H. destruct (128 <=? b) eqn:E; [apply N.leb_le in E|apply N.leb_gt in E].
  - rewrite <- (N.mod_unique b 128 1 (b - 128)); lia.
  - rewrite N.mod_small; lia.
Qed.

Lemma lossless_colr : leaf_lossless dec_colr.
Proof.
  intros h r l rsv r' Hok H G. unfold dec_colr in H. run H; inj_pret H; cbn [body_leaf chunk nth hd]; rew_conds.
  - eexists; split; [reflexivity|]; split; [|assumption].
    rewrite full_range_join by assumption. repeat rewrite <- app_assoc. reflexivity.
  - eexists; split; [reflexivity|]; split; [|assumption]. repeat rewrite <- app_assoc. reflexivity.
  - eexists; split; [reflexivity|]; split; [|assumption]. repeat rewrite <- app_assoc. reflexivity.
Qed.

(* ---------------------------------------------------------------- avcC *)
Lemma item_nalu bs a r : bytes_ok bs = true -> rd_nalu bs = Ok (a, r) -> bs = wr_nalu a ++ r /\ bytes_ok r = true.
Proof.
  intros Hok H. unfold rd_nalu in H. run H. destruct (rdB_spec _ _ _ _ Hok0 H) as (-> & Hl & _ & Hr).
  split; [|assumption]. unfold wr_nalu. rewrite Hl. now rewrite <- app_assoc.
Qed.

Lemma join_low2 b : b mod 4 = 3 -> N.lor 3 (b / 4 * 4) = b.
Proof.
  intros H. rewrite N.lor_comm. change 4 with (2 ^ 2) at 2. rewrite lor_shifted_add by (cbn; lia).
  change (2 ^ 2) with 4. pose proof (N.div_mod b 4). lia.
Qed.
Lemma join_lowk b k : N.lor (b / 2 ^ k * 2 ^ k) (b mod 2 ^ k) = b.
Proof. now apply (join_low _ k). Qed.
Lemma join4 b : N.lor (b / 4 * 4) (b mod 4) = b.
Proof. exact (join_lowk b 2). Qed.
Lemma join8 b : N.lor (b / 8 * 8) (b mod 8) = b.
Proof. exact (join_lowk b 3). Qed.
Lemma join_sps b : b < 256 -> N.lor (u8 (b mod 32)) (b / 32 * 32) = b.
Proof.
  intros H. unfold u8. rewrite (N.mod_small (b mod 32)) by (pose proof (N.mod_lt b 32); lia).
  rewrite N.lor_comm. exact (join_lowk b 5).
Qed.

Lemma avcc_rec_spec data l rsv extra : bytes_ok data = true -> avcc_rec data = Ok ((l, rsv), extra) ->
  exists b, body_leaf l (rsv ++ [extra]) = Ok b /\ data = b.
Proof.
  intros Hok H. unfold avcc_rec in H. run H.
  apply pbind_ok in H. destruct H as (sps & r1 & E1 & H). many E1 item_nalu.
  step H.
  apply pbind_ok in H. destruct H as (pps & r2 & E2 & H). many E2 item_nalu.
  apply negb_false_iff, N.eqb_eq in Hc, Hc0. subst.
  assert (Hb5 : a4 < 256) by (change (256 ^ N.of_nat 1) with 256 in *; assumption).
  destruct (avc_plain a0) eqn:Ep.
  - inj_pret H. cbn [body_leaf chunk nth hd app]. rewrite Ep. cbn [orb].
    eexists; split; [reflexivity|].
    rewrite join_low2 by assumption. rewrite Hl, join_sps by assumption.
    repeat rewrite <- app_assoc. reflexivity.
  - destruct r2 as [|x r2].
    + injection H as <- <- <-. cbn [body_leaf chunk nth hd app]. rewrite Ep. cbn [orb].
      eexists; split; [reflexivity|].
      rewrite join_low2 by assumption. rewrite Hl, join_sps by assumption.
      repeat rewrite <- app_assoc. reflexivity.
    + run H. inj_pret H. cbn [body_leaf chunk nth hd app]. rewrite Ep. cbn [orb].
      apply negb_false_iff, N.eqb_eq in Hc. subst.
      eexists; split; [reflexivity|].
      rewrite join_low2 by assumption. rewrite Hl, join_sps by assumption.
      rewrite join4, !join8.
      repeat rewrite <- app_assoc. reflexivity.
Qed.

(* dec_avcC and dec_hvcC are this with their record parser: the payload is cut out and parsed on its own; what the
   record parser leaves over is captured as the last chunk *)
Definition dec_rec (rec : parser (leaf * rsvT)) (h : hdr) : parser (leaf * rsvT) :=
  pdo data <- rdB (payload_len h) ;;
  fun r => match rec data with
           | Ok ((l, rsv), extra) => Ok ((l, rsv ++ [extra]), r)
           | Err => Err | Panic => Panic | OutOfFuel => OutOfFuel
           end.

Lemma dec_rec_inv rec h r l rsv r' : dec_rec rec h r = Ok ((l, rsv), r') ->
  exists data rsv0 extra, rdB (payload_len h) r = Ok (data, r') /\ rec data = Ok ((l, rsv0), extra) /\ rsv = rsv0 ++ [extra].
Proof.
  intros H. apply pbind_ok in H. destruct H as (data & r1 & E & H).
  destruct (rec data) as [[[l0 rsv0] extra]| | |] eqn:Er; try discriminate. injection H as <- <- <-. now exists data, rsv0, extra.
Qed.

Lemma lossless_rec rec :
  (forall data l rsv extra, bytes_ok data = true -> rec data = Ok ((l, rsv), extra) ->
     exists b, body_leaf l (rsv ++ [extra]) = Ok b /\ data = b) ->
  leaf_lossless (dec_rec rec).
Proof.
  intros Hrec h r l rsv r' Hok H G. destruct (dec_rec_inv _ _ _ _ _ _ H) as (data & rsv0 & extra & E & Er & ->).
  destruct (rdB_spec _ _ _ _ Hok E) as (-> & _ & Hd & Hr'). destruct (Hrec _ _ _ _ Hd Er) as (b & Hb & ->).
  exists b. now repeat split.
Qed.

Lemma lossless_avcC : leaf_lossless dec_avcC.
Proof. exact (lossless_rec avcc_rec avcc_rec_spec). Qed.
