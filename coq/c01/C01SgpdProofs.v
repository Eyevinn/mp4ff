(* C01SgpdProofs.v — sgpd with its seig / roll / rap / alst / unknown entries: losslessness and locality. *)
From V.lib Require Import Base.
From V.c01 Require Import C01Codec C01Model C01LeafProofs C01Leaf2Proofs C01Leaf3Proofs C01Leaf4Proofs C01Leaf5Proofs C01LocalProofs.

(* ---------------------------------------------------------------- sgpd entries *)
Lemma item_pair16 bs a r : bytes_ok bs = true -> rd_pair16 bs = Ok (a, r) -> bs = wr_pair16 a ++ r /\ bytes_ok r = true.
Proof.
  intros Hok H. unfold rd_pair16 in H. run H. inj_pret H. split; [|assumption].
  unfold wr_pair16. cbn [fst snd]. repeat rewrite <- app_assoc. reflexivity.
Qed.

Lemma lenN_wr_pair16 p : lenN (wr_pair16 p) = 4.
Proof. unfold wr_pair16. now rewrite lenN_app, !lenN_be_enc. Qed.

Lemma lenN_wr_sge_rb e rb : lenN (wr_sge e rb) = lenN (wr_sge e 0).
Proof. destruct e; cbn [wr_sge]; try reflexivity; rewrite !lenN_app, !lenN_be_enc; reflexivity. Qed.

Lemma seig_nibbles b : b < 256 ^ N.of_nat 1 -> N.lor (u8 (b / 16 * 16)) (b mod 16) = b.
Proof. exact (join_nibbles b). Qed.

Lemma rap_join b : b < 256 ^ N.of_nat 1 -> N.lor (u8 (b / 128 * 128)) (b mod 128) = b.
Proof.
  intros H. change (256 ^ N.of_nat 1) with 256 in H. unfold u8. rewrite N.mod_small by lia.
  change 128 with (2 ^ 7). apply join_lowk.
Qed.

Lemma item_sge gt dl bs e rb r : bytes_ok bs = true -> rd_sge gt dl bs = Ok ((e, rb), r) ->
  bs = wr_sge e rb ++ r /\ bytes_ok r = true /\ lenN (wr_sge e rb) = dl.
Proof.
  intros Hok H. unfold rd_sge in H.
  destruct (bytes_eqb gt n_seig).
  { do 5 step H. apply pbind_ok in H. destruct H as (civ & r6 & E & H). cbv beta zeta in H.
    destruct (negb (dl =? sge_size (SSeig (a0 / 16) (a0 mod 16) a1 a2 a3 civ))) eqn:Es; [discriminate H|]. inj_pret H.
    apply negb_false_iff, N.eqb_eq in Es. cbn [sge_size] in Es. cbn [wr_sge]. rewrite seig_nibbles by assumption.
    destruct ((a1 =? 1) && (a2 =? 0)).
    - step E. solve_read E. rewrite Hlen0. split; [repeat rewrite <- app_assoc; reflexivity|]. split; [assumption|].
      rewrite !lenN_app, !lenN_be_enc, Hlen. try subst dl. lia.
    - inj_pret E. split; [repeat rewrite <- app_assoc; cbn [app]; reflexivity|]. split; [assumption|].
      rewrite !lenN_app, !lenN_be_enc, Hlen. try subst dl. change (lenN (@nil N)) with 0. lia. }
  destruct (bytes_eqb gt n_roll).
  { run H. inj_pret H. apply negb_false_iff, N.eqb_eq in Hc. try subst dl. cbn [wr_sge]. split; [reflexivity|]. split; [assumption|].
    now rewrite lenN_be_enc. }
  destruct (bytes_eqb gt n_rap).
  { run H. inj_pret H. apply negb_false_iff, N.eqb_eq in Hc. try subst dl. cbn [wr_sge]. rewrite rap_join by assumption.
    split; [reflexivity|]. split; [assumption|]. now rewrite lenN_be_enc. }
  destruct (bytes_eqb gt n_alst).
  { step H. step H. cbv beta in H. tail_many H (item_rd 4).
    destruct (dl <? 4 + 4 * lenN es) eqn:E1.
    - rewrite <- Hl in H. rewrite E1 in H. discriminate H.
    - rewrite <- Hl in H. rewrite E1 in H. cbv zeta in H.
      destruct ((dl - (4 + 4 * lenN es)) / 4 =? 0) eqn:E2.
      + destruct (negb (dl =? 4 + 4 * lenN es)) eqn:E3; [discriminate H|]. inj_pret H.
        apply negb_false_iff, N.eqb_eq in E3. cbn [wr_sge flat_map]. rewrite app_nil_r.
        split; [repeat rewrite <- app_assoc; reflexivity|]. split; [assumption|].
        rewrite !lenN_app, !lenN_be_enc, (lenN_flat_map_const _ 4) by (intros; apply lenN_be_enc). lia.
      + match type of H with (if ?c then _ else _) = _ => destruct c end; [discriminate H|].
        tail_many H item_pair16.
        destruct (negb (dl =? 4 + 4 * lenN es + 4 * ((dl - (4 + 4 * lenN es)) / 4))) eqn:E3; [discriminate H|]. inj_pret H.
        apply negb_false_iff, N.eqb_eq in E3. cbn [wr_sge].
        split; [repeat rewrite <- app_assoc; reflexivity|]. split; [assumption|].
        rewrite !lenN_app, !lenN_be_enc, (lenN_flat_map_const _ 4) by (intros; apply lenN_be_enc).
        rewrite (lenN_flat_map_const _ 4) by (intros; apply lenN_wr_pair16). lia. }
  run H. inj_pret H. cbn [wr_sge]. now repeat split.
Qed.

Lemma item_sgpd v dlen gt bs it r : bytes_ok bs = true -> rd_sgpd_item v dlen gt bs = Ok (it, r) ->
  bs = wr_sgpd_item dlen it ++ r /\ bytes_ok r = true /\ lenN (wr_sge (snd (fst it)) 0) = fst (fst it) /\
  fst (fst it) <> 0 /\ (negb (dlen =? 0) = true -> fst (fst it) = dlen) /\ ((1 <=? v) = false -> dlen <> 0).
Proof.
  intros Hok H. unfold rd_sgpd_item in H. apply pbind_ok in H. destruct H as (dl & r1 & E & H). cbv beta zeta in H.
  destruct (dl =? 0) eqn:E0; [discriminate H|]. apply N.eqb_neq in E0.
  apply pbind_ok in H. destruct H as ([e rb] & r2 & E2 & H). unfold pret in H. injection H as <- <-. cbn [fst snd].
  unfold wr_sgpd_item. cbn [fst snd].
  destruct ((1 <=? v) && (dlen =? 0)) eqn:Ec.
  - apply andb_true_iff in Ec. destruct Ec as [Ev Ed]. rewrite Ed. destruct (rd_spec _ _ _ _ Hok E) as (-> & _ & Hok1).
    destruct (item_sge _ _ _ _ _ _ Hok1 E2) as (-> & Hok2 & Hl). rewrite lenN_wr_sge_rb in Hl.
    split; [now rewrite <- app_assoc|]. split; [assumption|]. split; [assumption|]. split; [assumption|].
    split; [discriminate|]. intros Hv. rewrite Hv in Ev. discriminate.
  - unfold pret in E. injection E as Hd Hb. subst dl r1.
    destruct (item_sge _ _ _ _ _ _ Hok E2) as (-> & Hok2 & Hl). rewrite lenN_wr_sge_rb in Hl.
    destruct (dlen =? 0) eqn:Ed; [apply N.eqb_eq in Ed; congruence|]. cbn [app].
    split; [reflexivity|]. split; [assumption|]. split; [assumption|]. split; [assumption|].
    split; [reflexivity|]. intros _. assumption.
Qed.

Lemma combine_fst_snd {A B} (l : list (A * B)) : combine (map fst l) (map snd l) = l.
Proof. induction l as [|[a b] t IH]; [reflexivity|]. cbn [map combine fst snd]. now rewrite IH. Qed.

Lemma item_sgpd_bytes v dlen gt bs it r : bytes_ok bs = true -> rd_sgpd_item v dlen gt bs = Ok (it, r) ->
  bs = wr_sgpd_item dlen it ++ r /\ bytes_ok r = true.
Proof. intros Hok H. destruct (item_sgpd _ _ _ _ _ _ Hok H) as (? & ? & _). now split. Qed.

Lemma lossless_sgpd : leaf_lossless dec_sgpd.
Proof.
  intros h r l rsv r' Hok H G. unfold dec_sgpd in H. do 2 step H. do 2 step_if H. step H.
  tail_many H (item_sgpd_bytes (vf_version a) a1 a0). inj_pret H.
  cbn [body_leaf chunk nth]. rewrite combine_fst_snd.
  eexists; split; [reflexivity|]; split; [|assumption].
  rewrite vf_join_split by assumption.
  replace (lenN (map fst es)) with (lenN es) by (unfold lenN; now rewrite map_length).
  repeat rewrite <- app_assoc. reflexivity.
Qed.

(* ---------------------------------------------------------------- locality *)
Lemma rd_width n bs a r : rd n bs = Ok (a, r) -> lenN bs = N.of_nat n + lenN r.
Proof.
  unfold rd. destruct (take n bs) as [[x r0]|] eqn:E; [|discriminate]. intros H. injection H as <- <-.
  destruct (take_spec _ _ _ _ E) as [-> Hl]. rewrite lenN_app. unfold lenN at 1. now rewrite Hl.
Qed.
Lemma pair16_width bs a r : rd_pair16 bs = Ok (a, r) -> lenN bs = 4 + lenN r.
Proof.
  unfold rd_pair16. intros H. apply pbind_ok in H. destruct H as (x & r1 & E1 & H).
  apply pbind_ok in H. destruct H as (y & r2 & E2 & H). unfold pret in H. injection H as <- <-.
  apply rd_width in E1, E2. lia.
Qed.
Lemma many_width {A} (p : parser A) c : (forall bs a r, p bs = Ok (a, r) -> lenN bs = c + lenN r) ->
  forall f cnt bs l r, rd_many f cnt p bs = Ok (l, r) -> lenN bs = c * cnt + lenN r.
Proof.
  intros Hp f cnt bs l r H. apply (rd_many_ind _ _ _ _ _ _ H (fun cnt bs _ r => lenN bs = c * cnt + lenN r)); [intros; lia|].
  intros cnt0 bs0 a r1 l0 r0 Hc E IH. apply Hp in E. replace cnt0 with (N.succ (cnt0 - 1)) by lia. rewrite N.mul_succ_r. lia.
Qed.
Lemma local_pair16 : local rd_pair16. Proof. unfold rd_pair16. loc. Qed.
Lemma progress_pair16 : progress rd_pair16. Proof. intros a H. discriminate H. Qed.

Lemma local_alst_tail {B} rem (k : list (N * N) -> parser B) : (forall outs, local (k outs)) ->
  local (fun bs => if lenN bs / 4 <? rem then Err else pbind (rd_many (S (length bs)) rem rd_pair16) k bs).
Proof.
  intros Hk bs b r H. destruct (lenN bs / 4 <? rem) eqn:Ec; [discriminate|].
  apply pbind_ok in H. destruct H as (outs & r1 & E1 & E2).
  pose proof (many_width _ 4 pair16_width _ _ _ _ _ E1) as Hw.
  destruct (many_local _ local_pair16 _ _ _ _ _ E1) as (x1 & -> & _ & H1).
  pose proof (many_len _ local_pair16 progress_pair16 _ _ _ _ _ E1) as Hlen.
  destruct (Hk outs _ _ _ E2) as (x2 & -> & H2).
  exists (x1 ++ x2). split; [now rewrite app_assoc|]. intros r2.
  rewrite !lenN_app in Hw.
  replace (lenN ((x1 ++ x2) ++ r2) / 4 <? rem) with false by (symmetry; apply N.ltb_ge; rewrite !lenN_app; lia).
  unfold pbind. rewrite <- app_assoc. rewrite H1; [apply H2|]. rewrite !app_length in *. lia.
Qed.

Lemma local_sge gt dl : local (rd_sge gt dl).
Proof.
  unfold rd_sge. destruct (bytes_eqb gt n_seig); [loc|]. destruct (bytes_eqb gt n_roll); [loc|].
  destruct (bytes_eqb gt n_rap); [loc|]. destruct (bytes_eqb gt n_alst); [|loc].
  apply local_bind; [apply local_rd|intros rc]. apply local_bind; [apply local_rd|intros first].
  apply local_many_S; [apply local_rd|apply progress_rd_S|intros offs].
  destruct (dl <? 4 + 4 * rc); [apply local_pfail|]. cbv zeta.
  destruct ((dl - (4 + 4 * rc)) / 4 =? 0); [loc|].
  apply local_alst_tail. intros outs. loc.
Qed.

Lemma local_sgpd_item v dlen gt : local (rd_sgpd_item v dlen gt).
Proof.
  unfold rd_sgpd_item. apply local_bind; [destruct ((1 <=? v) && (dlen =? 0)); [apply local_rd|apply local_pret]|intros dl].
  destruct (dl =? 0); [apply local_pfail|]. apply local_bind; [apply local_sge|intros x; apply local_pret].
Qed.

Lemma progress_sgpd_item v dlen gt : progress (rd_sgpd_item v dlen gt).
Proof.
  intros a H. unfold rd_sgpd_item, pbind in H.
  destruct ((1 <=? v) && (dlen =? 0)); [discriminate H|]. unfold pret at 1 in H.
  destruct (dlen =? 0) eqn:Ed; [discriminate H|]. unfold rd_sge in H.
  destruct (bytes_eqb gt n_seig); [discriminate H|]. destruct (bytes_eqb gt n_roll); [discriminate H|].
  destruct (bytes_eqb gt n_rap); [discriminate H|]. destruct (bytes_eqb gt n_alst); [discriminate H|].
  unfold pbind, rdB in H. change (lenN (@nil N)) with 0 in H. apply N.eqb_neq in Ed.
  replace (0 <? dlen) with true in H by (symmetry; apply N.ltb_lt; lia). discriminate H.
Qed.

Lemma local_sgpd : forall h, local (dec_sgpd h).
Proof.
  unfold dec_sgpd. intros h. apply local_bind; [apply local_rd|intros vf]. cbv zeta.
  apply local_bind; [apply local_rdB|intros gt]. apply local_bind; [apply local_rd_if|intros dlen].
  apply local_bind; [apply local_rd_if|intros dgdi]. apply local_bind; [apply local_rd|intros cnt].
  apply local_many_S; [apply local_sgpd_item|apply progress_sgpd_item|intros its; apply local_pret].
Qed.

(* ---------------------------------------------------------------- print-then-parse with the reserved byte of seig zeroed *)
(* the encoder writes 0 where a seig entry has its reserved byte: the entry decoded from those bytes is the same, with 0 captured *)
Lemma many_zero {A} (p : parser A) (wr : A -> list N) (z : A -> A) :
  (forall bs a r, bytes_ok bs = true -> p bs = Ok (a, r) -> bytes_ok r = true /\ forall r2, p (wr (z a) ++ r2) = Ok (z a, r2)) ->
  forall f cnt bs l r, bytes_ok bs = true -> rd_many f cnt p bs = Ok (l, r) ->
  forall f' r2, (length l <= f')%nat -> rd_many f' cnt p (flat_map wr (map z l) ++ r2) = Ok (map z l, r2).
Proof.
  intros Hp f cnt bs l r Hok H. revert Hok.
  apply (rd_many_ind _ _ _ _ _ _ H (fun cnt bs l _ => bytes_ok bs = true -> forall f' r2, (length l <= f')%nat ->
           rd_many f' cnt p (flat_map wr (map z l) ++ r2) = Ok (map z l, r2))); clear - Hp.
  - intros bs _ f' r2 _. destruct f'; reflexivity.
  - intros cnt bs a r1 l r Hc E IH Hok f' r2 Hf. destruct (Hp _ _ _ Hok E) as [Hok1 H1].
    destruct f' as [|f']; [cbn in Hf; lia|]. cbn [rd_many map flat_map].
    apply N.eqb_neq in Hc. rewrite Hc, <- app_assoc, H1, (IH Hok1) by (cbn in Hf; lia). reflexivity.
Qed.

Lemma sge_zero gt dl bs e rb r : bytes_ok bs = true -> rd_sge gt dl bs = Ok ((e, rb), r) ->
  forall r2, rd_sge gt dl (wr_sge e 0 ++ r2) = Ok ((e, 0), r2).
Proof.
  intros Hok H. destruct (bytes_eqb gt n_seig) eqn:Es.
  - (* seig: the first byte is read and only handed back *)
    unfold rd_sge in H. rewrite Es in H.
    do 5 step H. apply pbind_ok in H. destruct H as (civ & r6 & E & H). cbv beta zeta in H.
    destruct (negb (dl =? sge_size (SSeig (a0 / 16) (a0 mod 16) a1 a2 a3 civ))) eqn:Ez; [discriminate H|]. inj_pret H.
    unfold rd_sge. rewrite Es. cbn [wr_sge]. rewrite seig_nibbles by assumption.
    unfold pbind. repeat rewrite <- app_assoc.
    rewrite (rd_enc 1 0) by (change (256 ^ N.of_nat 1) with 256; lia). cbv beta iota.
    rewrite !rd_enc by assumption. cbv beta iota. rewrite (rdB_lit a3 16) by assumption. cbv beta iota.
    destruct ((a1 =? 1) && (a2 =? 0)) eqn:Eb.
    + step E. solve_read E. repeat rewrite <- app_assoc.
      rewrite rd_enc by (rewrite Hlen0; assumption). cbv beta iota. rewrite (rdB_lit civ (lenN civ)) by reflexivity. cbv beta iota.
      rewrite Ez. reflexivity.
    + inj_pret E. cbn [app]. unfold pret at 1. cbv beta iota. rewrite Ez. reflexivity.
  - (* every other grouping type: nothing is captured, the bytes are the same *)
    assert (rb = 0).
    { unfold rd_sge in H. rewrite Es in H. destruct (bytes_eqb gt n_roll); [run H; inj_pret H; reflexivity|].
      destruct (bytes_eqb gt n_rap); [run H; inj_pret H; reflexivity|].
      destruct (bytes_eqb gt n_alst).
      - apply pbind_ok in H. destruct H as (? & ? & _ & H). apply pbind_ok in H. destruct H as (? & ? & _ & H). cbv beta in H.
        apply pbind_ok in H. destruct H as (? & ? & _ & H). cbv beta zeta in H.
        destruct (dl <? 4 + 4 * x); [discriminate H|]. destruct ((dl - (4 + 4 * x)) / 4 =? 0).
        + destruct (negb (dl =? 4 + 4 * x)); [discriminate H|]. now inj_pret H.
        + match type of H with (if ?c then _ else _) = _ => destruct c end; [discriminate H|].
          apply pbind_ok in H. destruct H as (? & ? & _ & H).
          match type of H with (if ?c then _ else _) _ = _ => destruct c end; [discriminate H|]. now inj_pret H.
      - run H. now inj_pret H. }
    subst rb. destruct (item_sge _ _ _ _ _ _ Hok H) as (-> & _ & _).
    destruct (local_sge gt dl _ _ _ H) as (x & Hx & Hall). apply app_inv_tail in Hx. subst x. exact Hall.
Qed.

Lemma sgpd_item_zero v dlen gt bs it r : bytes_ok bs = true -> rd_sgpd_item v dlen gt bs = Ok (it, r) ->
  bytes_ok r = true /\ forall r2, rd_sgpd_item v dlen gt (wr_sgpd_item dlen (fst it, 0) ++ r2) = Ok ((fst it, 0), r2).
Proof.
  intros Hok H. split; [exact (proj1 (proj2 (item_sgpd _ _ _ _ _ _ Hok H)))|].
  unfold rd_sgpd_item in H. apply pbind_ok in H. destruct H as (dl & r1 & E & H). cbv beta zeta in H.
  destruct (dl =? 0) eqn:E0; [discriminate H|].
  apply pbind_ok in H. destruct H as ([e rb] & r3 & E2 & H). unfold pret in H. injection H as <- <-. cbn [fst snd].
  intros r2. unfold rd_sgpd_item, wr_sgpd_item, pbind. cbn [fst snd].
  destruct ((1 <=? v) && (dlen =? 0)) eqn:Ec.
  - apply andb_true_iff in Ec. destruct Ec as [Ev Ed]. rewrite Ed. destruct (rd_spec _ _ _ _ Hok E) as (-> & Hdl & Hok1).
    rewrite <- app_assoc, rd_enc by assumption. cbv beta iota. rewrite E0, (sge_zero _ _ _ _ _ _ Hok1 E2). reflexivity.
  - unfold pret in E. injection E as Hd Hb. subst dl r1.
    rewrite E0. cbn [app]. unfold pret at 1. cbv beta iota. rewrite E0, (sge_zero _ _ _ _ _ _ Hok E2). reflexivity.
Qed.
