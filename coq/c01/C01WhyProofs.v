(* C01WhyProofs.v — the reasons of why_box are complete: a decoded tree without a reason is exact and has all its
   captured bytes at the encoder's values, hence the Go encoders reproduce the input bit for bit; in particular
   the re-encoding is a fixed point. *)
From V.lib Require Import Base.
From V.c01 Require Import C01Codec C01Model C01LeafProofs C01EsdsProofs C01TableProofs C01TreeProofs.

Section MboxInd.
  Variable P : mbox -> Prop.
  Hypothesis HL : forall h l r, P (MLeaf h l r).
  Hypothesis HC : forall h cs, Forall P cs -> P (MCont h cs).
  Hypothesis HU : forall h p, P (MUnknown h p).
  Hypothesis HP : forall h l r cs, Forall P cs -> P (MPre h l r cs).
  Fixpoint mbox_rect2 (t : mbox) : P t :=
    match t with
    | MLeaf h l r => HL h l r
    | MCont h cs => HC h cs ((fix go (cs : list mbox) : Forall P cs :=
                                match cs with [] => Forall_nil _ | c :: t => Forall_cons _ (mbox_rect2 c) (go t) end) cs)
    | MUnknown h p => HU h p
    | MPre h l r cs => HP h l r cs ((fix go (cs : list mbox) : Forall P cs :=
                                match cs with [] => Forall_nil _ | c :: t => Forall_cons _ (mbox_rect2 c) (go t) end) cs)
    end.
End MboxInd.

Lemma if_nil {A} (c : bool) (x : A) : (if c then [] else [x]) = [] -> c = true.
Proof. destruct c; [reflexivity|discriminate]. Qed.
Lemma if_nil' {A} (c : bool) (x : A) : (if c then [x] else []) = [] -> c = false.
Proof. destruct c; [discriminate|reflexivity]. Qed.
Lemma map_nil {A B} (f : A -> B) l : map f l = [] -> l = [].
Proof. destruct l; [reflexivity|discriminate]. Qed.

(* rsv_eqb is rsv_eqb0 under a second name *)
Lemma rsv_eqb_eq r : forall d, rsv_eqb r d = true -> r = d.
Proof. exact (rsv_eqb0_eq r). Qed.

Lemma chunks_why_nil r : forall i dc d, chunks_why i dc r d = [] -> rsv_eqb r d = true.
Proof.
  induction r as [|c r IH]; intros i dc [|e d] H; cbn [chunks_why rsv_eqb] in *; try discriminate; [reflexivity|].
  apply app_eq_nil in H. destruct H as [H1 H2]. apply if_nil in H1. rewrite H1. cbn [andb]. eapply IH; eassumption.
Qed.

Lemma hdr_why_nil large h sz : hdr_why large h sz = [] -> h_len h = (if large then 16 else 8) /\ h_size h = sz.
Proof.
  unfold hdr_why. intros H. apply app_eq_nil in H. destruct H as [H1 H]. apply app_eq_nil in H. destruct H as [H2 H3].
  apply if_nil in H1. apply if_nil' in H2. apply if_nil' in H3. apply N.eqb_eq in H1. apply N.ltb_ge in H2, H3.
  split; [assumption|lia].
Qed.

Lemma leaf_why_nil large h l r sz : leaf_why large h l r sz = [] ->
  h_len h = (if large then 16 else 8) /\ h_size h = sz /\ leaf_guard l = true /\ rsv_eqb r (dflt_rsv l) = true.
Proof.
  unfold leaf_why. intros H. apply app_eq_nil in H. destruct H as [H1 H]. apply app_eq_nil in H. destruct H as [H2 H3].
  destruct (hdr_why_nil _ _ _ H1) as [Ha Hb]. apply if_nil in H2. apply chunks_why_nil in H3. now repeat split.
Qed.

Lemma flat_map_nil {A B} (f : A -> list B) l : flat_map f l = [] -> forall x, In x l -> f x = [].
Proof.
  induction l as [|a l IH]; intros H x Hin; [destruct Hin|]. cbn [flat_map] in H. apply app_eq_nil in H.
  destruct H as [H1 H2]. destruct Hin as [<-|Hin]; [assumption|now apply IH].
Qed.

Lemma whys_nil cs : Forall (fun t => why_box t = [] -> exact_box t = true /\ rsv_default t = true) cs ->
  flat_map why_box cs = [] -> forallb exact_box cs = true /\ forallb rsv_default cs = true.
Proof.
  intros IH H. pose proof (flat_map_nil _ _ H) as Hk. rewrite Forall_forall in IH.
  split; apply forallb_forall; intros c Hin; now apply (IH c Hin (Hk c Hin)).
Qed.

Lemma why_nil t : why_box t = [] -> exact_box t = true /\ rsv_default t = true.
Proof.
  induction t as [h l r|h cs IH|h p|h l r cs IH] using mbox_rect2; cbn [why_box exact_box rsv_default]; intros H.
  - apply map_nil in H. destruct (leaf_why_nil _ _ _ _ _ H) as (Ha & Hb & Hg & Hr). split; [|assumption].
    rewrite Hg, andb_true_r. unfold hdr_exact. destruct (leaf_large l); rewrite Ha, Hb, !N.eqb_refl; reflexivity.
  - apply app_eq_nil in H. destruct H as [H1 H2]. apply map_nil in H1.
    apply app_eq_nil in H1. destruct H1 as [Ha H1]. apply app_eq_nil in H1. destruct H1 as [Hb Hc].
    apply if_nil in Ha, Hb, Hc. rewrite Ha, Hb, Hc. cbn [andb]. rewrite !andb_true_r. exact (whys_nil cs IH H2).
  - split; [|reflexivity]. destruct ((h_len h =? 8) || (h_len h =? 16)); [reflexivity|discriminate].
  - apply app_eq_nil in H. destruct H as [H1 H2]. apply map_nil in H1.
    destruct (leaf_why_nil _ _ _ _ _ H1) as (Ha & Hb & Hg & Hr).
    rewrite Hg, Hr. unfold hdr_exact. rewrite Ha, Hb, !N.eqb_refl. exact (whys_nil cs IH H2).
Qed.

Lemma raw_default t : rsv_default t = true -> raw_box true t = raw_box false t.
Proof.
  assert (E : forall cs, Forall (fun c => rsv_default c = true -> raw_box true c = raw_box false c) cs ->
                forallb rsv_default cs = true -> map (genc true) cs = map (genc false) cs).
  { intros cs IH H. rewrite Forall_forall in IH. rewrite forallb_forall in H.
    apply map_ext_in. intros c Hin. unfold genc. now rewrite (IH c Hin (H c Hin)). }
  induction t as [h l r|h cs IH|h p|h l r cs IH] using mbox_rect2; cbn [rsv_default]; intros H.
  - cbn [raw_box]. now rewrite (rsv_eqb_eq _ _ H).
  - rewrite !raw_box_cont. cbv zeta. now rewrite (E cs IH H).
  - reflexivity.
  - apply andb_true_iff in H. destruct H as [H1 H2]. now rewrite !raw_box_pre, (rsv_eqb_eq _ _ H1), (E cs IH H2).
Qed.

(* no reason, no difference: the bytes the Go encoders write are the input *)
Lemma explained bs t rest : bytes_ok bs = true -> decode bs = Ok (t, rest) -> why_box t = [] ->
  exists enc, raw_box false t = Ok enc /\ bs = enc ++ rest.
Proof.
  intros Hok H Hw. destruct (why_nil _ Hw) as [He Hr].
  destruct (tree_lossless _ _ _ Hok H He) as (enc & Henc & Hb). exists enc. rewrite <- (raw_default _ Hr). now split.
Qed.

Lemma fixpoint_partial bs t : bytes_ok bs = true -> decode bs = Ok (t, []) -> why_box t = [] ->
  exists enc, raw_box false t = Ok enc /\ decode enc = Ok (t, []) /\ raw_box false t = Ok enc /\ enc = bs.
Proof.
  intros Hok H Hw. destruct (explained _ _ _ Hok H Hw) as (enc & He & Hb). rewrite app_nil_r in Hb. subst enc.
  exists bs. now repeat split.
Qed.

(* ---------------------------------------------------------------- a file: a sequence of top-level boxes *)
(* induction over the box loop of DecodeFileSR on a file whose top-level trees are exact *)
Lemma decode_seq_ind (P : nat -> list N -> list mbox -> Prop) :
  (forall f, P (S f) [] []) ->
  (forall f bs t r ts, bytes_ok bs = true -> bs <> [] -> decode bs = Ok (t, r) -> exact_box t = true -> bytes_ok r = true ->
     P f r ts -> P (S f) bs (t :: ts)) ->
  forall f bs ts, bytes_ok bs = true -> decode_seq f bs = Ok ts -> forallb exact_box ts = true -> P f bs ts.
Proof.
  intros P0 PS. induction f as [|f IH]; intros bs ts Hok H Hex; cbn [decode_seq] in H; [discriminate|].
  destruct bs as [|b0 bs0]; [injection H as <-; apply P0|]. set (bs := b0 :: bs0) in *.
  destruct (decode bs) as [[t r]| | |] eqn:Ed; try discriminate.
  destruct (decode_seq f r) as [ts'| | |] eqn:Es; try discriminate. injection H as <-.
  cbn [forallb] in Hex. apply andb_true_iff in Hex. destruct Hex as [Ht Hts].
  destruct (proj1 (tree_both _) _ _ _ Hok Ed Ht) as (_ & _ & _ & Hokr).
  apply (PS f bs t r ts' Hok); try assumption; [discriminate|]. exact (IH _ _ Hokr Es Hts).
Qed.

Lemma seq_lossless f : forall bs ts, bytes_ok bs = true -> decode_seq f bs = Ok ts -> forallb exact_box ts = true ->
  encode_seq true ts = Ok bs.
Proof.
  apply (decode_seq_ind (fun _ bs ts => encode_seq true ts = Ok bs)); [reflexivity|].
  intros _ bs t r ts Hok _ Ed Ht _ IH. destruct (tree_lossless _ _ _ Hok Ed Ht) as (enc & Henc & ->).
  cbn [encode_seq]. now rewrite Henc, IH.
Qed.

Lemma encode_seq_default ts : forallb rsv_default ts = true -> encode_seq true ts = encode_seq false ts.
Proof.
  induction ts as [|t ts IH]; [reflexivity|]. cbn [forallb encode_seq]. intros H. apply andb_true_iff in H.
  destruct H as [H1 H2]. now rewrite (raw_default _ H1), (IH H2).
Qed.

Lemma flat_why_nil ts : flat_map why_box ts = [] -> forallb exact_box ts = true /\ forallb rsv_default ts = true.
Proof. apply whys_nil, Forall_forall. intros t _. apply why_nil. Qed.

Lemma seq_explained bs ts : bytes_ok bs = true -> decode_file bs = Ok ts -> flat_map why_box ts = [] ->
  encode_seq false ts = Ok bs /\ decode_file bs = Ok ts.
Proof.
  intros Hok H Hw. split; [|assumption]. destruct (flat_why_nil _ Hw) as [He Hr].
  rewrite <- (encode_seq_default _ Hr). exact (seq_lossless _ _ _ Hok H He).
Qed.
