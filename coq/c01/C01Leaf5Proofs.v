(* C01Leaf5Proofs.v — losslessness of the stage-4 leaf kinds: hvcC (hevc.DecodeHEVCDecConfRec), subs. *)
From V.lib Require Import Base.
From V.c01 Require Import C01Codec C01Model C01LeafProofs C01Leaf2Proofs C01Leaf3Proofs C01Leaf4Proofs.

(* every property of a byte that is checked by computation on the 256 bytes holds of every byte *)
Lemma byte_all (P : N -> bool) : forallb P (map N.of_nat (seq 0 256)) = true -> forall a, a < 256 -> P a = true.
Proof.
  intros H a Ha. rewrite forallb_forall in H. apply H.
  rewrite <- (N2Nat.id a). apply in_map. apply in_seq. lia.
Qed.

Lemma hvcc_byte1 a : a < 256 ->
  N.lor (N.lor (u8 ((a / 64) mod 4 * 64)) (if (a / 32) mod 2 =? 1 then 32 else 0)) (a mod 32) = a.
Proof.
  intros Ha. apply N.eqb_eq.
  apply (byte_all (fun a => N.lor (N.lor (u8 ((a / 64) mod 4 * 64)) (if (a / 32) mod 2 =? 1 then 32 else 0)) (a mod 32) =? a));
    [vm_compute; reflexivity|exact Ha].
Qed.

Lemma hvcc_byte2 b : b < 256 -> b mod 4 = 3 ->
  N.lor (N.lor (N.lor (u8 ((b / 64) mod 4 * 64)) (u8 ((b / 8) mod 8 * 8))) (u8 ((b / 4) mod 2 * 4))) 3 = b.
Proof.
  intros Hb H3.
  pose proof (byte_all (fun b => negb (b mod 4 =? 3) ||
    (N.lor (N.lor (N.lor (u8 ((b / 64) mod 4 * 64)) (u8 ((b / 8) mod 8 * 8))) (u8 ((b / 4) mod 2 * 4))) 3 =? b))
    ltac:(vm_compute; reflexivity) b Hb) as H.
  cbv beta in H. rewrite H3 in H. cbn [N.eqb Pos.eqb negb orb] in H. now apply N.eqb_eq in H.
Qed.

Lemma join4096 m : N.lor (m / 4096 * 4096) (m mod 4096) = m.
Proof. exact (join_lowk m 12). Qed.

(* ---------------------------------------------------------------- hvcC *)
Lemma item_narr bs a r : bytes_ok bs = true -> rd_narr bs = Ok (a, r) -> bs = wr_narr a ++ r /\ bytes_ok r = true.
Proof.
  intros Hok H. unfold rd_narr in H. run H. tail_many H item_nalu. inj_pret H. split; [|assumption].
  unfold wr_narr. cbn [fst snd]. repeat rewrite <- app_assoc. reflexivity.
Qed.

Lemma hvcc_rec_spec data l rsv extra : bytes_ok data = true -> hvcc_rec data = Ok ((l, rsv), extra) ->
  exists b, body_leaf l (rsv ++ [extra]) = Ok b /\ data = b.
Proof.
  intros Hok H. unfold hvcc_rec in H. run H.
  apply pbind_ok in H. destruct H as (arrs & r1 & E1 & H). many E1 item_narr. inj_pret H.
  apply negb_false_iff, N.eqb_eq in Hc, Hc0. subst.
  change (256 ^ N.of_nat 1) with 256 in *.
  cbn [body_leaf chunk nth hd app]. eexists; split; [reflexivity|].
  rewrite hvcc_byte1, hvcc_byte2, join4096, !join4, !join8 by assumption.
  repeat rewrite <- app_assoc. reflexivity.
Qed.

Lemma lossless_hvcC : leaf_lossless dec_hvcC.
Proof. exact (lossless_rec hvcc_rec hvcc_rec_spec). Qed.

(* ---------------------------------------------------------------- subs *)
Lemma item_subsample w bs a r : bytes_ok bs = true -> rd_subsample w bs = Ok (a, r) ->
  bs = wr_subsample w a ++ r /\ bytes_ok r = true.
Proof.
  intros Hok H. unfold rd_subsample in H. run H. inj_pret H. split; [|assumption].
  unfold wr_subsample. repeat rewrite <- app_assoc. reflexivity.
Qed.

Lemma item_subs_entry w bs a r : bytes_ok bs = true -> rd_subs_entry w bs = Ok (a, r) ->
  bs = wr_subs_entry w a ++ r /\ bytes_ok r = true.
Proof.
  intros Hok H. unfold rd_subs_entry in H. run H. tail_many H (item_subsample w). inj_pret H. split; [|assumption].
  unfold wr_subs_entry. cbn [fst snd]. repeat rewrite <- app_assoc. reflexivity.
Qed.

Lemma lossless_subs : leaf_lossless dec_subs.
Proof.
  intros h r l rsv r' Hok H G. unfold dec_subs in H. run H.
  tail_many H (item_subs_entry (subs_w (vf_version a))). inj_pret H. cbn [body_leaf]. close_with Hl.
Qed.

(* ---------------------------------------------------------------- uuid *)
Lemma item_pairw w bs a r : bytes_ok bs = true -> rd_pairw w bs = Ok (a, r) -> bs = wr_pairw w a ++ r /\ bytes_ok r = true.
Proof.
  intros Hok H. unfold rd_pairw in H. run H. inj_pret H. split; [|assumption].
  unfold wr_pairw. cbn [fst snd]. repeat rewrite <- app_assoc. reflexivity.
Qed.

Lemma bytes_eqb_eq1 x : forall y, bytes_eqb x y = true -> x = y.
Proof.
  induction x as [|a x IH]; intros [|b y] H; cbn [bytes_eqb] in H; try discriminate; [reflexivity|].
  apply andb_true_iff in H. destruct H as [H1 H2]. apply N.eqb_eq in H1. subst. f_equal. now apply IH.
Qed.

Lemma lossless_uuid : leaf_lossless dec_uuid.
Proof.
  intros h r l rsv r' Hok H G. unfold dec_uuid in H. step H.
  destruct (bytes_eqb a uuid_tfxd) eqn:E1.
  { apply bytes_eqb_eq1 in E1. subst a. run H. inj_pret H. cbn [body_leaf].
    eexists; split; [reflexivity|]; split; [|assumption].
    rewrite vf_join_split by assumption. repeat rewrite <- app_assoc. reflexivity. }
  destruct (bytes_eqb a uuid_tfrf) eqn:E2.
  { apply bytes_eqb_eq1 in E2. subst a. run H. tail_many H (item_pairw (uuid_w (vf_version a))). inj_pret H. cbn [body_leaf].
    rewrite N.ltb_irrefl, firstn_lenN.
    eexists; split; [reflexivity|]; split; [|assumption].
    rewrite vf_join_split by assumption. repeat rewrite <- app_assoc. reflexivity. }
  destruct (bytes_eqb a uuid_piff) eqn:E3.
  { apply bytes_eqb_eq1 in E3. subst a. destruct (h_size h <? 16); [discriminate H|].
    apply pbind_ok in H. destruct H as ([l0 rsv0] & r1 & E & H). cbn [fst] in H.
    destruct l0; try discriminate H. inj_pret H.
    destruct (lossless_senc _ _ _ _ _ Hok0 E G) as (b & Hb & -> & Hok1).
    cbn [body_leaf] in *. destruct (negb notParsed && has flags 2 && (0 <? count)); [discriminate Hb|]. injection Hb as <-.
    eexists; split; [reflexivity|]; split; [|assumption]. repeat rewrite <- app_assoc. reflexivity. }
  destruct (h_size h <? 24); [discriminate H|]. run H. inj_pret H. cbn [body_leaf].
  eexists; split; [reflexivity|]; split; [|assumption]. repeat rewrite <- app_assoc. reflexivity.
Qed.

