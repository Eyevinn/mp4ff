(* C01Codec.v — big-endian integer codec over byte lists (list N) and the parser / printer
   combinators shared by the box models of C01 and C02 (other properties import this read-only).

   Bytes are N with bytes_ok (Base.v).  A parser consumes a prefix of the remaining slice, exactly
   like the Go code reading from a bits.SliceReader; Err models the accumulated slice-read error
   (the Go readers go on returning zeros after the first failed read and report the error at the end
   through AccError; every modelled decoder returns sr.AccError(), so failing at the first short
   read is observationally the same). *)
From V.lib Require Import Base.

(* ---------------------------------------------------------------- little / big endian *)
Fixpoint le_enc (n : nat) (v : N) : list N :=
  match n with O => [] | S m => v mod 256 :: le_enc m (v / 256) end.

Fixpoint le_dec (l : list N) : N :=
  match l with [] => 0 | b :: t => b + 256 * le_dec t end.

(* be_enc n v: the n low-order bytes of v, most significant first.  Like Go's uintN(v) conversion
   followed by binary.BigEndian.PutUintN it silently drops the high part of v. *)
Definition be_enc (n : nat) (v : N) : list N := rev (le_enc n v).
Definition be_dec (l : list N) : N := le_dec (rev l).

Lemma length_le_enc n v : length (le_enc n v) = n.
Proof. revert v. induction n as [|n IH]; intros v; cbn [le_enc length]; [reflexivity|]. now rewrite IH. Qed.

Lemma length_be_enc n v : length (be_enc n v) = n.
Proof. unfold be_enc. rewrite rev_length. apply length_le_enc. Qed.

Lemma lenN_be_enc n v : lenN (be_enc n v) = N.of_nat n.
Proof. unfold lenN. now rewrite length_be_enc. Qed.

Lemma le_enc_bytes_ok n v : bytes_ok (le_enc n v) = true.
Proof.
  revert v. induction n as [|n IH]; intros v; cbn [le_enc]; [reflexivity|].
  rewrite bytes_ok_cons, IH, andb_true_r. unfold byte_ok. apply N.ltb_lt. apply N.mod_lt. discriminate.
Qed.

Lemma bytes_ok_rev l : bytes_ok (rev l) = bytes_ok l.
Proof.
  induction l as [|b t IH]; [reflexivity|]. cbn [rev]. rewrite bytes_ok_app, IH, !bytes_ok_cons.
  cbn [bytes_ok forallb]. rewrite andb_true_r. apply andb_comm.
Qed.

Lemma be_enc_bytes_ok n v : bytes_ok (be_enc n v) = true.
Proof. unfold be_enc. rewrite bytes_ok_rev. apply le_enc_bytes_ok. Qed.

Lemma le_dec_enc n v : le_dec (le_enc n v) = v mod 256 ^ N.of_nat n.
Proof.
  revert v. induction n as [|n IH]; intros v.
  - cbn [le_enc le_dec]. change (N.of_nat 0) with 0. rewrite N.pow_0_r, N.mod_1_r. reflexivity.
  - cbn [le_enc le_dec]. rewrite IH. rewrite Nat2N.inj_succ, N.pow_succ_r'.
    rewrite N.mod_mul_r by (try discriminate; apply N.pow_nonzero; discriminate). reflexivity.
Qed.

Lemma le_enc_dec l : bytes_ok l = true -> le_enc (length l) (le_dec l) = l.
Proof.
  induction l as [|b t IH]; intros H; [reflexivity|].
  rewrite bytes_ok_cons in H. apply andb_true_iff in H. destruct H as [Hb Ht].
  unfold byte_ok in Hb. apply N.ltb_lt in Hb.
  cbn [length le_enc le_dec].
  replace ((b + 256 * le_dec t) mod 256) with b by lia.
  replace ((b + 256 * le_dec t) / 256) with (le_dec t) by lia.
  now rewrite IH.
Qed.

Lemma be_dec_enc n v : be_dec (be_enc n v) = v mod 256 ^ N.of_nat n.
Proof. unfold be_dec, be_enc. rewrite rev_involutive. apply le_dec_enc. Qed.

Lemma be_dec_enc_small n v : v < 256 ^ N.of_nat n -> be_dec (be_enc n v) = v.
Proof. intros H. rewrite be_dec_enc. now apply N.mod_small. Qed.

Lemma be_enc_dec l : bytes_ok l = true -> be_enc (length l) (be_dec l) = l.
Proof.
  intros H. unfold be_enc, be_dec. rewrite <- (rev_length l).
  rewrite le_enc_dec by (now rewrite bytes_ok_rev). apply rev_involutive.
Qed.

Lemma le_dec_lt l : bytes_ok l = true -> le_dec l < 256 ^ N.of_nat (length l).
Proof.
  induction l as [|b t IH]; intros H.
  - cbn. lia.
  - rewrite bytes_ok_cons in H. apply andb_true_iff in H. destruct H as [Hb Ht].
    unfold byte_ok in Hb. apply N.ltb_lt in Hb. specialize (IH Ht).
    cbn [length le_dec]. rewrite Nat2N.inj_succ, N.pow_succ_r'. lia.
Qed.

Lemma be_dec_lt l : bytes_ok l = true -> be_dec l < 256 ^ N.of_nat (length l).
Proof. intros H. unfold be_dec. rewrite <- (rev_length l). apply le_dec_lt. now rewrite bytes_ok_rev. Qed.

(* the value written is reduced modulo 256^n: be_enc n (v mod 256^n) = be_enc n v *)
Lemma le_enc_mod n v : le_enc n (v mod 256 ^ N.of_nat n) = le_enc n v.
Proof.
  revert v. induction n as [|n IH]; intros v; [reflexivity|].
  cbn [le_enc]. rewrite Nat2N.inj_succ, N.pow_succ_r'.
  assert (P : 256 ^ N.of_nat n <> 0) by (apply N.pow_nonzero; discriminate).
  rewrite N.mod_mul_r by (try discriminate; exact P).
  set (q := 256 ^ N.of_nat n) in *. set (X := (v / 256) mod q).
  replace ((v mod 256 + 256 * X) mod 256) with (v mod 256) by lia.
  replace ((v mod 256 + 256 * X) / 256) with X by lia.
  unfold X, q. now rewrite IH.
Qed.

Lemma be_enc_mod n v : be_enc n (v mod 256 ^ N.of_nat n) = be_enc n v.
Proof. unfold be_enc. now rewrite le_enc_mod. Qed.

(* ---------------------------------------------------------------- taking a prefix *)
Fixpoint take (n : nat) (bs : list N) : option (list N * list N) :=
  match n with
  | O => Some ([], bs)
  | S m => match bs with
           | [] => None
           | b :: t => match take m t with Some (x, r) => Some (b :: x, r) | None => None end
           end
  end.

Lemma take_spec n bs x r : take n bs = Some (x, r) -> bs = x ++ r /\ length x = n.
Proof.
  revert bs x r. induction n as [|n IH]; intros bs x r H; cbn [take] in H.
  - injection H as <- <-. now split.
  - destruct bs as [|b t]; [discriminate|].
    destruct (take n t) as [[x' r']|] eqn:E; [|discriminate].
    injection H as <- <-. destruct (IH _ _ _ E) as [-> <-]. now split.
Qed.

Lemma take_app x r : take (length x) (x ++ r) = Some (x, r).
Proof. induction x as [|b t IH]; cbn [length take app]; [reflexivity|]. now rewrite IH. Qed.

Lemma take_none n bs : take n bs = None -> (length bs < n)%nat.
Proof.
  revert bs. induction n as [|n IH]; intros bs H; cbn [take] in H; [discriminate|].
  destruct bs as [|b t]; [cbn; lia|].
  destruct (take n t) as [[x' r']|] eqn:E; [discriminate|]. specialize (IH _ E). cbn [length]. lia.
Qed.

(* ---------------------------------------------------------------- parsers *)
Definition parser (A : Type) : Type := list N -> res (A * list N).

Definition pret {A} (a : A) : parser A := fun bs => Ok (a, bs).
Definition pfail {A} : parser A := fun _ => Err.
Definition pbind {A B} (p : parser A) (f : A -> parser B) : parser B :=
  fun bs => match p bs with
            | Ok (a, r) => f a r
            | Err => Err | Panic => Panic | OutOfFuel => OutOfFuel
            end.
(* `injection` on Ok x = Ok y runs simpl over x and y, which unfolds every N.lor / N.land with a constant argument *)
Lemma Ok_inj {A} (x y : A) : Ok x = Ok y -> x = y.
Proof. now intros [= ->]. Qed.

Notation "'pdo' x <- p ;; k" := (pbind p (fun x => k)) (at level 200, x name, p at level 100, k at level 200, right associativity).

(* sr.ReadUintN: n bytes, big endian *)
Definition rd (n : nat) : parser N :=
  fun bs => match take n bs with Some (x, r) => Ok (be_dec x, r) | None => Err end.

(* sr.ReadBytes(n) / SkipBytes(n) with the bytes kept: n is a 64-bit quantity in Go, so it is an N here and
   is compared with the remaining length before anything is allocated *)
Definition rdB (n : N) : parser (list N) :=
  fun bs => if lenN bs <? n then Err
            else match take (N.to_nat n) bs with Some (x, r) => Ok (x, r) | None => Err end.

(* sr.RemainingBytes() *)
Definition rd_rest : parser (list N) := fun bs => Ok (bs, []).

(* counted repetition: `for i := 0; i < cnt; i++ { item }`.  Fuel bounds the number of iterations;
   callers pass (length of the slice + the largest count the Go code admits for zero-width items). *)
Fixpoint rd_many {A} (fuel : nat) (cnt : N) (p : parser A) : parser (list A) :=
  fun bs =>
    if cnt =? 0 then Ok ([], bs) else
    match fuel with
    | O => OutOfFuel
    | S f => match p bs with
             | Ok (a, r) => match rd_many f (cnt - 1) p r with
                            | Ok (l, r') => Ok (a :: l, r')
                            | Err => Err | Panic => Panic | OutOfFuel => OutOfFuel
                            end
             | Err => Err | Panic => Panic | OutOfFuel => OutOfFuel
             end
    end.

Lemma rd_spec n bs v r :
  bytes_ok bs = true -> rd n bs = Ok (v, r) ->
  bs = be_enc n v ++ r /\ v < 256 ^ N.of_nat n /\ bytes_ok r = true.
Proof.
  unfold rd. intros Hok H. destruct (take n bs) as [[x r']|] eqn:E; [|discriminate].
  injection H as <- <-. destruct (take_spec _ _ _ _ E) as [-> Hl].
  rewrite bytes_ok_app in Hok. apply andb_true_iff in Hok. destruct Hok as [Hx Hr].
  split; [|split]; [| |exact Hr].
  - rewrite <- Hl. now rewrite be_enc_dec.
  - rewrite <- Hl. now apply be_dec_lt.
Qed.

Lemma rdB_spec n bs x r :
  bytes_ok bs = true -> rdB n bs = Ok (x, r) ->
  bs = x ++ r /\ lenN x = n /\ bytes_ok x = true /\ bytes_ok r = true.
Proof.
  unfold rdB. intros Hok H. destruct (lenN bs <? n) eqn:Hc; [discriminate|].
  destruct (take (N.to_nat n) bs) as [[x' r']|] eqn:E; [|discriminate].
  injection H as <- <-. destruct (take_spec _ _ _ _ E) as [-> Hl].
  rewrite bytes_ok_app in Hok. apply andb_true_iff in Hok. destruct Hok as [Hx Hr].
  repeat split; try assumption. unfold lenN. rewrite Hl. lia.
Qed.

Lemma rd_rest_spec bs x r : rd_rest bs = Ok (x, r) -> bs = x ++ r /\ r = [].
Proof. unfold rd_rest. intros H. injection H as <- <-. now rewrite app_nil_r. Qed.

(* what a successful counted repetition did, whatever its fuel: nothing for count 0, else one item and the rest *)
Lemma rd_many_ind {A} (p : parser A) fuel cnt bs l r : rd_many fuel cnt p bs = Ok (l, r) ->
  forall P : N -> list N -> list A -> list N -> Prop,
  (forall bs, P 0 bs [] bs) ->
  (forall cnt bs a r1 l r, cnt <> 0 -> p bs = Ok (a, r1) -> P (cnt - 1) r1 l r -> P cnt bs (a :: l) r) ->
  P cnt bs l r.
Proof.
  intros H P H0 HS. revert cnt bs l r H. induction fuel as [|f IH]; intros cnt bs l r H; cbn [rd_many] in H;
    destruct (cnt =? 0) eqn:Hc; try discriminate;
    try (apply N.eqb_eq in Hc; subst cnt; injection H as <- <-; apply H0).
  destruct (p bs) as [[a r1]| | |] eqn:E; try discriminate.
  destruct (rd_many f (cnt - 1) p r1) as [[l' r']| | |] eqn:E2; try discriminate.
  injection H as <- <-. apply N.eqb_neq in Hc. exact (HS _ _ _ _ _ _ Hc E (IH _ _ _ _ E2)).
Qed.

Lemma rd_many_spec {A} (p : parser A) (e : A -> list N) :
  (forall bs a r, bytes_ok bs = true -> p bs = Ok (a, r) -> bs = e a ++ r /\ bytes_ok r = true) ->
  forall fuel cnt bs l r, bytes_ok bs = true -> rd_many fuel cnt p bs = Ok (l, r) ->
    bs = flat_map e l ++ r /\ lenN l = cnt /\ bytes_ok r = true.
Proof.
  intros Hp fuel cnt bs l r Hok H. revert Hok. apply (rd_many_ind _ _ _ _ _ _ H); [now repeat split|]. clear - Hp.
  intros cnt bs a r1 l r Hc E IH Hok. destruct (Hp _ _ _ Hok E) as [-> Hok1]. destruct (IH Hok1) as (-> & Hl & Hr).
  cbn [flat_map]. rewrite <- app_assoc, lenN_cons. repeat split; [lia|assumption].
Qed.

(* printing the items back and parsing them again *)
Lemma rd_many_print {A} (p : parser A) (e : A -> list N) :
  (forall a r, p (e a ++ r) = Ok (a, r)) ->
  forall l r fuel, (length l <= fuel)%nat -> rd_many fuel (lenN l) p (flat_map e l ++ r) = Ok (l, r).
Proof.
  intros Hp. induction l as [|a t IH]; intros r fuel Hf.
  - destruct fuel; reflexivity.
  - destruct fuel as [|f]; [cbn in Hf; lia|]. cbn [rd_many flat_map]. rewrite lenN_cons.
    replace (1 + lenN t =? 0) with false by (symmetry; apply N.eqb_neq; lia).
    rewrite <- app_assoc, Hp. replace (1 + lenN t - 1) with (lenN t) by lia.
    rewrite IH by (cbn in Hf; lia). reflexivity.
Qed.

(* ---------------------------------------------------------------- version and flags word *)
Definition vf_version (vf : N) : N := vf / 16777216.        (* byte(versionAndFlags >> 24) *)
Definition vf_flags (vf : N) : N := vf mod 16777216.        (* versionAndFlags & flagsMask *)
(* (uint32(Version) << 24) + Flags, in uint32 arithmetic *)
Definition vf_join (version flags : N) : N := u32 (version * 16777216 + flags).

Lemma vf_join_split vf : vf < 256 ^ N.of_nat 4 -> vf_join (vf_version vf) (vf_flags vf) = vf.
Proof.
  unfold vf_join, vf_version, vf_flags, u32. intros H. change (256 ^ N.of_nat 4) with 4294967296 in H.
  rewrite N.mod_small; lia.
Qed.

Lemma vf_version_lt vf : vf < 256 ^ N.of_nat 4 -> vf_version vf < 256.
Proof. unfold vf_version. change (256 ^ N.of_nat 4) with 4294967296. lia. Qed.

Lemma vf_flags_lt vf : vf_flags vf < 16777216.
Proof. unfold vf_flags. lia. Qed.

(* flag test: Flags & bit != 0 *)
Definition has (flags bit : N) : bool := negb (N.land flags bit =? 0).

(* ---------------------------------------------------------------- lengths *)
Lemma lenN_flat_map_const {A} (e : A -> list N) (k : N) (l : list A) :
  (forall a, lenN (e a) = k) -> lenN (flat_map e l) = k * lenN l.
Proof.
  intros He. induction l as [|a t IH]; [cbn; lia|].
  cbn [flat_map]. rewrite lenN_app, lenN_cons, He, IH. lia.
Qed.

Definition zeros (n : nat) : list N := repeat 0 n.
Lemma length_zeros n : length (zeros n) = n.
Proof. apply repeat_length. Qed.
Lemma lenN_zeros n : lenN (zeros n) = N.of_nat n.
Proof. unfold lenN. now rewrite length_zeros. Qed.

Global Opaque be_enc be_dec.
