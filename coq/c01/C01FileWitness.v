(* C01FileWitness.v — whole files through DecodeFileSR with its File-level rules (C01FileModel): progressive files with
   the mdat before and after the moov, a fragmented file, the files the rules refuse, and the accepted file that is not
   reproduced (a cut-short mdat).  All by computation on the byte lists of C01FileExamples.v. *)
From V.lib Require Import Base.
From V.c01 Require Import C01Codec C01Model C01FileModel C01FileExamples.

Definition fseq_of (bs : list N) : list mbox := match decode_file_sr bs with FOk ts => ts | _ => [] end.
Definition file_ok (bs : list N) (names : list (list N)) (frag : bool) : Prop :=
  bytes_ok bs = true /\ decode_file_sr bs = FOk (fseq_of bs) /\ map box_name (fseq_of bs) = names /\
  file_frag (fseq_of bs) = frag /\ forallb exact_box (fseq_of bs) = true /\
  file_encode_w (fseq_of bs) = Ok bs /\ file_encode_sw (fseq_of bs) = Ok bs.

Lemma fseq_of_eq bs ts : decode_file_sr bs = FOk ts -> fseq_of bs = ts.
Proof. unfold fseq_of. now intros ->. Qed.

(* the decoded file is computed once, as a definition; the decoding is then checked against it and every other conjunct
   is computed on it, one at a time *)
Ltac on_boxes bs t :=
  let E := fresh "E" in
  assert (E : decode_file_sr bs = FOk t) by (vm_compute; reflexivity);
  unfold file_ok; rewrite (fseq_of_eq _ _ E); repeat split; vm_compute; reflexivity.

(* (d) progressive files: File.Encode writes the children as decoded, wherever the mdat stands *)
Definition t_prog_mdat_first : list mbox := Eval vm_compute in fseq_of fx_prog_mdat_first.
Lemma ex_prog_mdat_first_ok : file_ok fx_prog_mdat_first [n_ftyp; n_mdat; n_moov] false.
Proof. on_boxes fx_prog_mdat_first t_prog_mdat_first. Qed.
Definition t_prog_moov_first : list mbox := Eval vm_compute in fseq_of fx_prog_moov_first.
Lemma ex_prog_moov_first_ok : file_ok fx_prog_moov_first [n_ftyp; n_moov; n_free; n_mdat] false.
Proof. on_boxes fx_prog_moov_first t_prog_moov_first. Qed.
Definition t_prog_empty_mdats : list mbox := Eval vm_compute in fseq_of fx_prog_empty_mdats.
Lemma ex_prog_empty_mdats_ok : file_ok fx_prog_empty_mdats [n_ftyp; n_mdat; n_mdat; n_mdat; n_moov] false.
Proof. on_boxes fx_prog_empty_mdats t_prog_empty_mdats. Qed.
Definition t_frag : list mbox := Eval vm_compute in fseq_of fx_frag.
Lemma ex_frag_ok : file_ok fx_frag [n_ftyp; n_moov; n_styp; n_moof; n_mdat; n_moof; n_mdat] true.
Proof. on_boxes fx_frag t_frag. Qed.

(* refused by a File-level rule although the box loop alone accepts every box *)
Definition bseq_of (bs : list N) : list mbox := match decode_file bs with Ok ts => ts | _ => [] end.
Definition rule_refuses (bs : list N) : Prop :=
  decode_file_sr bs = FErr /\ decode_file bs = Ok (bseq_of bs) /\ forallb exact_box (bseq_of bs) = true /\ bseq_of bs <> [].
Lemma bseq_of_eq bs ts : decode_file bs = Ok ts -> bseq_of bs = ts.
Proof. unfold bseq_of. now intros ->. Qed.
Ltac refused bs t :=
  let E := fresh "E" in
  assert (E : decode_file bs = Ok t) by (vm_compute; reflexivity);
  unfold rule_refuses; rewrite (bseq_of_eq _ _ E); repeat split; try discriminate; vm_compute; reflexivity.

Definition t_two_mdats : list mbox := Eval vm_compute in bseq_of fx_two_mdats.
Lemma ex_two_mdats_refused : rule_refuses fx_two_mdats.
Proof. refused fx_two_mdats t_two_mdats. Qed.
Definition t_frag_mdat_first : list mbox := Eval vm_compute in bseq_of fx_frag_mdat_first.
Lemma ex_frag_mdat_first_refused : rule_refuses fx_frag_mdat_first.
Proof. refused fx_frag_mdat_first t_frag_mdat_first. Qed.
Definition t_nochain : list mbox := Eval vm_compute in bseq_of fx_nochain.
Lemma ex_nochain_refused : rule_refuses fx_nochain.
Proof. refused fx_nochain t_nochain. Qed.
(* refused by DecodeHeaderSR: trailing bytes shorter than a header, a size-0 header *)
Lemma ex_trailing_refused : decode_file_sr fx_trailing = FErr /\ decode_file_sr fx_size0 = FErr.
Proof. split; vm_compute; reflexivity. Qed.

(* ACCEPTED and NOT reproduced: the last mdat announces 100 bytes, 4 are there; DecodeMdatSR keeps an empty payload,
   the loop ends (the reader is in its error state), File.Encode writes an 8-byte mdat: 4 bytes of payload are lost *)
Definition fenc_of (bs : list N) : list N := match file_encode_w (fseq_of bs) with Ok e => e | _ => [] end.
Definition t_trunc_mdat : list mbox := Eval vm_compute in fseq_of fx_trunc_mdat.
Lemma file_trunc_mdat_refuted :
  decode_file_sr fx_trunc_mdat = FOk (fseq_of fx_trunc_mdat) /\ map box_name (fseq_of fx_trunc_mdat) = [n_ftyp; n_moov; n_mdat] /\
  forallb exact_box (fseq_of fx_trunc_mdat) = false /\ file_encode_w (fseq_of fx_trunc_mdat) = Ok (fenc_of fx_trunc_mdat) /\
  lenN fx_trunc_mdat = 504 /\ lenN (fenc_of fx_trunc_mdat) = 500 /\ firstn 492 (fenc_of fx_trunc_mdat) = firstn 492 fx_trunc_mdat.
Proof.
  assert (E : decode_file_sr fx_trunc_mdat = FOk t_trunc_mdat) by (vm_compute; reflexivity).
  unfold fenc_of. rewrite (fseq_of_eq _ _ E). repeat split; vm_compute; reflexivity.
Qed.
