(* C01RealWitness.v — complete real files decode inside the model, are exact, and re-encode to themselves. *)
From V.lib Require Import Base.
From V.c01 Require Import C01Codec C01Model C01RealFiles.

Definition seq_of (bs : list N) : list mbox := match decode_file bs with Ok ts => ts | _ => [] end.
Definition names_of (ts : list mbox) : list (list N) := map box_name ts.

Lemma seq_of_eq bs ts : decode_file bs = Ok ts -> seq_of bs = ts.
Proof. unfold seq_of. now intros ->. Qed.

(* the decoded file is computed once, as a definition; the decoding is then checked against it and every other conjunct
   is computed on it, one at a time *)
Ltac on_tree bs t :=
  let E := fresh "E" in
  assert (E : decode_file bs = Ok t) by (vm_compute; reflexivity);
  rewrite (seq_of_eq _ _ E); split; [exact E|]; repeat split; vm_compute; reflexivity.

(* mp4/testdata/golden_init_video.mp4: ftyp + moov{mvhd trak{tkhd mdia{mdhd hdlr minf{vmhd dinf{dref{url}}
   stbl{stsd{avc3{avcC}} stts stsc stsz stco}}}} mvex{trex}} *)
Definition t_init_video : list mbox := Eval vm_compute in seq_of rf_init_video.
Lemma real_init_ok :
  decode_file rf_init_video = Ok (seq_of rf_init_video) /\ names_of (seq_of rf_init_video) = [n_ftyp; n_moov] /\
  forallb exact_box (seq_of rf_init_video) = true /\ bytes_ok rf_init_video = true /\
  encode_seq false (seq_of rf_init_video) = Ok rf_init_video.
Proof. on_tree rf_init_video t_init_video. Qed.

Definition t_init_cmfv : list mbox := Eval vm_compute in seq_of rf_init_cmfv.
Lemma real_init2_ok :
  decode_file rf_init_cmfv = Ok (seq_of rf_init_cmfv) /\ names_of (seq_of rf_init_cmfv) = [n_ftyp; n_moov] /\
  forallb exact_box (seq_of rf_init_cmfv) = true /\ encode_seq false (seq_of rf_init_cmfv) = Ok rf_init_cmfv.
Proof. on_tree rf_init_cmfv t_init_cmfv. Qed.

(* cmd/mp4ff-subslister/testdata/multi_vttc.mp4: styp sidx moof{mfhd traf{tfhd tfdt trun}} mdat *)
Definition t_media_seg : list mbox := Eval vm_compute in seq_of rf_media_seg.
Lemma real_media_ok :
  decode_file rf_media_seg = Ok (seq_of rf_media_seg) /\
  names_of (seq_of rf_media_seg) = [n_styp; n_sidx; n_moof; n_mdat] /\
  forallb exact_box (seq_of rf_media_seg) = true /\ bytes_ok rf_media_seg = true /\
  encode_seq false (seq_of rf_media_seg) = Ok rf_media_seg.
Proof. on_tree rf_media_seg t_media_seg. Qed.

(* typed (not MUnknown) leaves with a given name somewhere in a tree *)
Fixpoint count_leaf (n : list N) (t : mbox) : nat :=
  match t with
  | MLeaf _ l _ => if bytes_eqb (leaf_name l) n then 1%nat else 0%nat
  | MCont _ cs => fold_right (fun c a => (count_leaf n c + a)%nat) 0%nat cs
  | MUnknown _ _ => 0%nat
  | MPre _ _ _ cs => fold_right (fun c a => (count_leaf n c + a)%nat) 0%nat cs
  end.
Definition count_leaves (n : list N) (ts : list mbox) : nat := fold_right (fun c a => (count_leaf n c + a)%nat) 0%nat ts.

(* mp4/testdata/aac_init.mp4: ftyp skip moov{... stsd{mp4a{esds}} ...}: the esds descriptor tree is decoded by the model *)
Definition t_init_aac : list mbox := Eval vm_compute in seq_of rf_init_aac.
Lemma real_init_aac_ok :
  decode_file rf_init_aac = Ok (seq_of rf_init_aac) /\ names_of (seq_of rf_init_aac) = [n_ftyp; n_skip; n_moov] /\
  forallb exact_box (seq_of rf_init_aac) = true /\ flat_map why_box (seq_of rf_init_aac) = [] /\
  count_leaves n_esds (seq_of rf_init_aac) = 1%nat /\ bytes_ok rf_init_aac = true /\
  encode_seq false (seq_of rf_init_aac) = Ok rf_init_aac.
Proof. on_tree rf_init_aac t_init_aac. Qed.

(* mp4/testdata/hvc1_init.mp4: ftyp moov{... stsd{hvc1{hvcC ...}} ...}: the HEVC decoder configuration record is decoded *)
Definition t_init_hvc1 : list mbox := Eval vm_compute in seq_of rf_init_hvc1.
Lemma real_init_hvc1_ok :
  decode_file rf_init_hvc1 = Ok (seq_of rf_init_hvc1) /\ names_of (seq_of rf_init_hvc1) = [n_ftyp; n_moov] /\
  forallb exact_box (seq_of rf_init_hvc1) = true /\ flat_map why_box (seq_of rf_init_hvc1) = [] /\
  count_leaves n_hvcC (seq_of rf_init_hvc1) = 1%nat /\ bytes_ok rf_init_hvc1 = true /\
  encode_seq false (seq_of rf_init_hvc1) = Ok rf_init_hvc1.
Proof. on_tree rf_init_hvc1 t_init_hvc1. Qed.
