(* C01FileProofs.v — DecodeFileSR with its File-level acceptance rules (C01FileModel): every accepted file whose
   top-level trees are exact is written back by File.Encode / File.EncodeSW with the input's length, is accepted
   AGAIN by the same rules, decodes to the same trees up to captured reserved bytes, and encodes to the same bytes. *)
From V.lib Require Import Base.
From V.c01 Require Import C01Codec C01Model C01TreeProofs C01WhyProofs C01FixProofs C01FileModel.

Definition no_trunc (ts : list mbox) : bool := forallb (fun t => negb (mdat_truncated t)) ts.

(* the loop is the box loop of decode_seq filtered by the rules, as long as no mdat is cut short *)
Lemma loop_sound f : forall st bs ts, file_loop f st bs = FOk ts -> no_trunc ts = true ->
  decode_seq f bs = Ok ts /\ file_rules st (map erase_rsv ts) = true.
Proof.
  induction f as [|f IH]; intros st bs ts H Hn; cbn [file_loop] in H; [discriminate|].
  cbn [decode_seq]. destruct bs as [|b0 bs0]; [injection H as <-; split; reflexivity|]. set (bs := b0 :: bs0) in *.
  destruct (decode bs) as [[t r]| | |] eqn:Ed; try discriminate.
  destruct (file_check st (erase_rsv t)) eqn:Ec; try discriminate.
  destruct (mdat_truncated t) eqn:Et.
  - injection H as <-. cbn [no_trunc forallb] in Hn. rewrite Et in Hn. discriminate.
  - destruct (file_loop f (file_add st (erase_rsv t)) r) as [ts'| | | |] eqn:El; try discriminate. injection H as <-.
    cbn [no_trunc forallb] in Hn. apply andb_true_iff in Hn. destruct Hn as [_ Hn].
    destruct (IH _ _ _ El Hn) as [Hd Hr]. rewrite Hd. split; [reflexivity|]. cbn [map file_rules]. now rewrite Ec.
Qed.

Lemma loop_complete f : forall st bs ts, decode_seq f bs = Ok ts -> file_rules st (map erase_rsv ts) = true ->
  no_trunc ts = true -> file_loop f st bs = FOk ts.
Proof.
  induction f as [|f IH]; intros st bs ts H Hr Hn; cbn [decode_seq] in H; [discriminate|].
  cbn [file_loop]. destruct bs as [|b0 bs0]; [injection H as <-; reflexivity|]. set (bs := b0 :: bs0) in *.
  destruct (decode bs) as [[t r]| | |] eqn:Ed; try discriminate.
  destruct (decode_seq f r) as [ts'| | |] eqn:Es; try discriminate. injection H as <-.
  cbn [map file_rules] in Hr. destruct (file_check st (erase_rsv t)); try discriminate.
  cbn [no_trunc forallb] in Hn. apply andb_true_iff in Hn. destruct Hn as [Ht Hn]. apply negb_true_iff in Ht. rewrite Ht.
  now rewrite (IH _ _ _ Es Hr Hn).
Qed.

(* an exact mdat was not cut short: its header announces exactly the payload that was read *)
Lemma exact_not_trunc t : exact_box t = true -> mdat_truncated t = false.
Proof.
  destruct t as [h l r|h cs|h p|h l r cs]; try reflexivity. destruct l; try reflexivity. intros H.
  destruct (exact_leaf _ _ _ H) as (Hl & Hs & _). cbn [mdat_truncated]. apply N.ltb_ge. unfold payload_len.
  cbn [leaf_large size_leaf] in Hl, Hs. destruct (large || (4294967287 <? lenN data)); lia.
Qed.
Lemma exact_no_trunc ts : forallb exact_box ts = true -> no_trunc ts = true.
Proof.
  induction ts as [|t r IH]; [reflexivity|]. cbn [forallb no_trunc]. intros H. apply andb_true_iff in H.
  destruct H as [Ht Hr]. rewrite (exact_not_trunc _ Ht). exact (IH Hr).
Qed.

Lemma trunc_norm t : mdat_truncated (norm_box t) = mdat_truncated t.
Proof. destruct t; reflexivity. Qed.
Lemma no_trunc_norm ts : no_trunc (map norm_box ts) = no_trunc ts.
Proof. induction ts as [|t r IH]; [reflexivity|]. cbn [map no_trunc forallb]. rewrite trunc_norm. f_equal. exact IH. Qed.
Lemma erase_norm_all ts : map erase_rsv (map norm_box ts) = map erase_rsv ts.
Proof. rewrite map_map. apply map_ext. exact erase_norm. Qed.

Lemma file_encode_w_eq ts : file_encode_w ts = encode_seq_w ts.
Proof. induction ts as [|t r IH]; [reflexivity|]. cbn [file_encode_w encode_seq_w]. now rewrite IH. Qed.

Lemma sum_sizes_len f : forall bs ts, bytes_ok bs = true -> decode_seq f bs = Ok ts -> forallb exact_box ts = true ->
  sumN (map size_box ts) = lenN bs.
Proof.
  apply (decode_seq_ind (fun _ bs ts => sumN (map size_box ts) = lenN bs)); [reflexivity|].
  intros _ bs t r ts Hok _ Ed Ht _ IH. destruct (proj1 (stable_all _) _ _ _ Hok Ed Ht) as (enc & _ & Hl & Hs & _).
  cbn [map sumN]. lia.
Qed.

Lemma forallb_andb_l {A} (f g : A -> bool) l : forallb (fun x => f x && g x) l = true -> forallb f l = true.
Proof. rewrite !forallb_forall. intros H x Hin. now destruct (andb_prop _ _ (H x Hin)). Qed.

(* DecodeFileSR, File.Encode (Box.Encode per child), File.EncodeSW (one writer of File.Size() bytes): for EVERY byte string
   the loop accepts (box-local rules of decode AND the File-level rules) with exact top-level trees *)
Lemma file_accepted_fixpoint bs ts : bytes_ok bs = true -> decode_file_sr bs = FOk ts -> forallb exact_box ts = true ->
  exists enc, file_encode_w ts = Ok enc /\ file_encode_sw ts = Ok enc /\ encode_seq false ts = Ok enc /\ lenN enc = lenN bs /\
    decode_file_sr enc = FOk (map norm_box ts) /\ file_frag (map norm_box ts) = file_frag ts /\
    file_encode_w (map norm_box ts) = Ok enc /\ file_encode_sw (map norm_box ts) = Ok enc.
Proof.
  intros Hok H Hex. unfold decode_file_sr in H. pose proof (exact_no_trunc _ Hex) as Hn.
  destruct (loop_sound _ _ _ _ H Hn) as [Hd Hr].
  destruct (file_fixpoint_full bs ts Hok Hd Hex) as (enc & He & Hw & Hl & Hd2 & He2 & Hw2).
  pose proof (seq_fits _ _ _ Hok Hd Hex) as Hf.
  pose proof (forallb_andb_l _ _ _ Hf) as Hfits. rewrite <- fits_norm_all in Hf. pose proof (forallb_andb_l _ _ _ Hf) as Hfits2.
  pose proof (sum_sizes_len _ _ _ Hok Hd Hex) as Hsum.
  exists enc. rewrite !file_encode_w_eq. unfold file_encode_sw. rewrite He, He2, Hfits, Hfits2, sizes_norm, Hsum. cbn [andb].
  replace (lenN enc <=? lenN bs) with true by (symmetry; apply N.leb_le; lia).
  repeat split; try assumption.
  - unfold decode_file_sr. unfold decode_file in Hd2. apply loop_complete; [exact Hd2| |now rewrite no_trunc_norm].
    now rewrite erase_norm_all.
  - unfold file_frag. now rewrite erase_norm_all.
Qed.
