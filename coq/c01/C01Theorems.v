(* C01Theorems.v — the property theorems of C01 (decode then encode is lossless outside reserved fields).
   Each is closed by `exact <lemma>` and followed by Print Assumptions (audited by ./check on every run). *)
From V.lib Require Import Base.
From V.c01 Require Import C01Codec C01Model C01LeafProofs C01Leaf2Proofs C01Leaf3Proofs C01Leaf4Proofs C01Leaf5Proofs C01Leaf6Proofs C01TableProofs C01TreeProofs C01WhyProofs C01Witness C01Witness3
  C01RealFiles C01RealWitness C01SizeProofs C01LocalProofs C01StableProofs C01FixProofs C01Witness4 C01EsdsProofs C01SgpdProofs C01Witness5
  C01FileModel C01FileProofs C01FileExamples C01FileWitness C01Witness6 C01GenModel C01GenProofs C01GenFileModel C01GenFileProofs C01GenWitness.

(* a compact header written by EncodeHeaderSW is read back by DecodeHeaderSR *)
Theorem C01_header_rt : forall name sz r, lenN name = 4 -> 8 <= sz < 4294967296 ->
  dec_hdr (enc_hdr name sz ++ r) = Ok (mkHdr name sz 8, r).
Proof. exact header_rt. Qed.
Print Assumptions C01_header_rt.

Theorem C01_header_large : forall name sz r, lenN name = 4 -> 16 <= sz < 18446744073709551616 ->
  dec_hdr (enc_hdr_large name sz ++ r) = Ok (mkHdr name sz 16, r).
Proof. exact header_large. Qed.
Print Assumptions C01_header_large.

(* every accepted header is one of the two printed forms: nothing in it is lost *)
Theorem C01_header_lossless : forall bs h r, bytes_ok bs = true -> dec_hdr bs = Ok (h, r) ->
  bytes_ok r = true /\ h_len h <= h_size h /\
  ((h_len h = 8 /\ bs = enc_hdr (h_name h) (h_size h) ++ r) \/
   (h_len h = 16 /\ bs = enc_hdr_large (h_name h) (h_size h) ++ r)).
Proof. exact dec_hdr_spec. Qed.
Print Assumptions C01_header_lossless.

(* per leaf kind: whatever the decoder accepts is reproduced from the decoded value and the captured
   reserved bytes -- nothing but the reserved bytes is lost (leaf_guard excludes only the trun whose
   data offset is present and zero, which Encode refuses: C01_trun_refuted) *)
(* ftyp/styp free/skip mdat mfhd tfhd tfdt trun mvhd tkhd sidx trex mdhd hdlr stts *)
Theorem C01_leaf_lossless_stage1 :
  leaf_lossless dec_ftyp /\
  leaf_lossless dec_free /\
  leaf_lossless dec_mdat /\
  leaf_lossless dec_mfhd /\
  leaf_lossless dec_tfhd /\
  leaf_lossless dec_tfdt /\
  leaf_lossless dec_trun /\
  leaf_lossless dec_mvhd /\
  leaf_lossless dec_tkhd /\
  leaf_lossless dec_sidx /\
  leaf_lossless dec_trex /\
  leaf_lossless dec_mdhd /\
  leaf_lossless dec_hdlr /\
  leaf_lossless dec_stts.
Proof. exact (conj lossless_ftyp (conj lossless_free (conj lossless_mdat (conj lossless_mfhd (conj lossless_tfhd (conj lossless_tfdt (conj lossless_trun (conj lossless_mvhd (conj lossless_tkhd (conj lossless_sidx (conj lossless_trex (conj lossless_mdhd (conj lossless_hdlr lossless_stts))))))))))))). Qed.
Print Assumptions C01_leaf_lossless_stage1.

(* stsc stsz stco/stss co64 sdtp ctts elst saiz saio sbgp prft tenc frma vmhd smhd nmhd/sthd mfro mehd tfra pssh *)
Theorem C01_leaf_lossless_stage2 :
  leaf_lossless dec_stsc /\
  leaf_lossless dec_stsz /\
  leaf_lossless (dec_tab 4) /\
  leaf_lossless (dec_tab 8) /\
  leaf_lossless dec_sdtp /\
  leaf_lossless dec_ctts /\
  leaf_lossless dec_elst /\
  leaf_lossless dec_saiz /\
  leaf_lossless dec_saio /\
  leaf_lossless dec_sbgp /\
  leaf_lossless dec_prft /\
  leaf_lossless dec_tenc /\
  leaf_lossless dec_frma /\
  leaf_lossless dec_vmhd /\
  leaf_lossless dec_smhd /\
  leaf_lossless dec_fullonly /\
  leaf_lossless dec_mfro /\
  leaf_lossless dec_mehd /\
  leaf_lossless dec_tfra /\
  leaf_lossless dec_pssh /\
  leaf_lossless dec_url /\
  leaf_lossless dec_avcC /\
  leaf_lossless dec_btrt /\
  leaf_lossless dec_pasp.
Proof. exact (conj lossless_stsc (conj lossless_stsz (conj (lossless_tab 4) (conj (lossless_tab 8) (conj lossless_sdtp (conj lossless_ctts (conj lossless_elst (conj lossless_saiz (conj lossless_saio (conj lossless_sbgp (conj lossless_prft (conj lossless_tenc (conj lossless_frma (conj lossless_vmhd (conj lossless_smhd (conj lossless_fullonly (conj lossless_mfro (conj lossless_mehd (conj lossless_tfra (conj lossless_pssh (conj lossless_url (conj lossless_avcC (conj lossless_btrt lossless_pasp))))))))))))))))))))))). Qed.
Print Assumptions C01_leaf_lossless_stage2.

(* url avcC btrt pasp colr clap schm cslg senc emsg elng kind; hvcC (whole hevc.DecodeHEVCDecConfRec) subs; esds with its whole descriptor tree; uuid (tfxd, tfrf, PIFF senc, unknown); sgpd (seig, roll, rap, alst, unknown entries); the field prefixes of stsd dref Visual/AudioSampleEntry (MPre) *)
Theorem C01_leaf_lossless_stage3 :
  leaf_lossless dec_colr /\
  leaf_lossless dec_clap /\
  leaf_lossless dec_schm /\
  leaf_lossless dec_cslg /\
  leaf_lossless dec_senc /\
  leaf_lossless dec_emsg /\
  leaf_lossless dec_elng /\
  leaf_lossless dec_kind /\
  leaf_lossless dec_hvcC /\
  leaf_lossless dec_subs /\
  leaf_lossless dec_esds /\
  leaf_lossless dec_uuid /\
  leaf_lossless dec_sgpd /\
  leaf_lossless dec_stsd /\
  leaf_lossless dec_dref /\
  leaf_lossless dec_visual /\
  leaf_lossless dec_audio.
Proof. exact (conj lossless_colr (conj lossless_clap (conj lossless_schm (conj lossless_cslg (conj lossless_senc (conj lossless_emsg (conj lossless_elng (conj lossless_kind (conj lossless_hvcC (conj lossless_subs (conj lossless_esds (conj lossless_uuid (conj lossless_sgpd (conj lossless_stsd (conj lossless_dref (conj lossless_visual lossless_audio)))))))))))))))). Qed.
Print Assumptions C01_leaf_lossless_stage3.


(* data (type indicator and locale kept since repo commit f36e540), mime, the wvtt sample-entry prefix,
   vtte, vsid; vttC vlab ctim iden sttg payl vtta are entries of leaf_table decoded by dec_free; MetaBox: dec_fullonly as the
   ISO prefix, the QuickTime form is a pure container chosen by meta_qt (the look-ahead of DecodeMetaSR) in decode *)
Theorem C01_leaf_lossless_stage5 :
  leaf_lossless dec_data /\ leaf_lossless dec_mime /\ leaf_lossless dec_wvtt /\ leaf_lossless dec_empty /\ leaf_lossless dec_b4 /\
  leaf_lossless dec_dac3 /\ leaf_lossless dec_dec3.
Proof. exact (conj lossless_data (conj lossless_mime (conj lossless_wvtt (conj lossless_empty (conj lossless_b4 (conj lossless_dac3 lossless_dec3)))))). Qed.
Print Assumptions C01_leaf_lossless_stage5.

(* esds with its whole descriptor tree (ES_Descriptor, DecoderConfigDescriptor with nested descriptors, DecSpecificInfo,
   SLConfig, raw descriptors, UnknownData, size fields of any width): reproduced from the decoded tree plus the size
   fields as read; C01_esds_core adds that a run whose size fields are in the encoder's form and that kept no
   UnknownData (leaf_guard) captured exactly the encoder's size fields and never looked behind the bytes it consumed.
   DecodeEsdsSR reads the payload of the box only (repo commit 27ea537, finding C03-F7: the descriptor decoders used
   to complete a descriptor cut short with the bytes behind the box), so the replay is stated for a header that
   announces exactly the re-encoded body -- what hdr_fits gives in C01_fixpoint. *)
Theorem C01_esds_core : forall h r l rsv r', bytes_ok r = true -> dec_esds h r = Ok ((l, rsv), r') ->
  bytes_ok r' = true /\ leaf_name l = n_esds /\ exists b, body_leaf l rsv = Ok b /\ r = b ++ r' /\
    (leaf_guard l = true -> rsv = dflt_rsv l /\ forall r2, payload_len h = lenN b -> dec_esds h (b ++ r2) = Ok ((l, rsv), r2)).
Proof. exact esds_core. Qed.
Print Assumptions C01_esds_core.


(* the tree: every slice accepted by the model of DecodeBoxSR whose tree is exact (compact headers whose size
   is Size(), guarded versions, no moov re-ordering, moof encodable) is reproduced bit for bit by the encoders
   when the captured reserved bytes are put back; raw_box false (the Go encoder) differs from raw_box true
   only in those bytes, by definition *)
Theorem C01_tree : forall bs t rest, bytes_ok bs = true -> decode bs = Ok (t, rest) -> exact_box t = true ->
  exists enc, raw_box true t = Ok enc /\ bs = enc ++ rest.
Proof. exact tree_lossless. Qed.
Print Assumptions C01_tree.

(* a file: the box loop of DecodeFileSR, written back by File.Encode in box-tree mode *)
Theorem C01_file_tree : forall bs ts, bytes_ok bs = true -> decode_file bs = Ok ts -> forallb exact_box ts = true ->
  encode_seq true ts = Ok bs.
Proof. exact (fun bs ts => seq_lossless (S (length bs)) bs ts). Qed.
Print Assumptions C01_file_tree.

(* the reasons of why_box are complete: a decoded tree for which the model gives no reason is exact and all its
   captured bytes have the values the encoders write; the Go encoders (raw_box false) then reproduce the input *)
Theorem C01_why_complete : forall t, why_box t = [] -> exact_box t = true /\ rsv_default t = true.
Proof. exact why_nil. Qed.
Print Assumptions C01_why_complete.

Theorem C01_explained : forall bs t rest, bytes_ok bs = true -> decode bs = Ok (t, rest) -> why_box t = [] ->
  exists enc, raw_box false t = Ok enc /\ bs = enc ++ rest.
Proof. exact explained. Qed.
Print Assumptions C01_explained.

(* ---------------------------------------------------------------- the fixed point, in general *)
(* the decoders are local: a successful run reads a prefix of the slice and never looks at what follows it *)
Theorem C01_header_local : local dec_hdr.
Proof. exact local_hdr. Qed.
Print Assumptions C01_header_local.

(* the dispatch tables as a whole: every
   registered entry of the model is lossless and names its leaf; and print-then-parse per entry: a decoded leaf whose header is the
   one the encoder writes (hdr_fits) is re-encoded by the Go encoder (reserved places filled with dflt_rsv) into exactly Size() bytes,
   and the decoder applied to those bytes -- whatever follows them -- returns the same leaf, now with the encoder's values as
   captured bytes *)
Theorem C01_leaf_stable : Forall entry_ok leaf_table /\ Forall pre_entry_ok pre_table /\
  Forall (fun e => leaf_stable (snd e)) leaf_table /\ Forall (fun e => pre_stable (fst (snd e))) pre_table.
Proof. exact (conj leaf_table_ok (conj pre_table_ok (conj leaf_table_stable pre_table_stable))). Qed.
Print Assumptions C01_leaf_stable.

(* C01_fixpoint: for EVERY slice the model of DecodeBoxSR accepts completely with an exact tree t -- no hypothesis on the
   reserved bytes --: the Go encoders succeed on both API paths (raw_box false = the bytes written; encode_w = Box.Encode with its
   per-box FixedSliceWriter capacities and the 2^32 limit; encode_sw = Box.EncodeSW into one writer of Size() bytes) with the
   same bytes enc, of the input's length = Size(); decoding enc succeeds and yields norm_box t, i.e. t up to the captured
   reserved bytes (their erasures are equal); encoding that once more gives enc again on all three.  enc differs from the
   input at most in the captured bytes (C01_tree).
   SECOND CONJUNCT (generation2; one theorem with the first because each Print Assumptions over stable_all costs ~12 s of every run):
   the last sentence of the property ("decoding that output again succeeds ... encoding it once more gives exactly the same bytes")
   for accepted inputs OUTSIDE the first conjunct: NO exactness hypothesis on the first tree t (trailing body bytes dropped, header
   size ignored, large-size header compacted, trak re-ordered, guarded shapes ...), bytes may be left over (rest).  gen2_ok enc is a
   boolean on the bytes Box.Encode wrote -- enc is a byte string, the decoder model accepts it completely and why_box has no reason
   for its tree --; the driver evaluates it on the encoders' REAL output for every accepted, not reproduced input of the
   correspondence run (G lines; evidence correspondence.second_generation).  Then enc is a fixed point on every API path: the second
   decode gives an exact tree t2 that is its own normal form; the raw encoder, Box.Encode and Box.EncodeSW all write enc again;
   Size() is its length.  NOT proved: that gen2_ok holds for every accepted input whose encoding succeeds (explored: all G lines). *)
Theorem C01_fixpoint :
  (forall bs t, bytes_ok bs = true -> decode bs = Ok (t, []) -> exact_box t = true ->
   exists enc, raw_box false t = Ok enc /\ encode_w t = Ok enc /\ encode_sw t = Ok enc /\
    lenN enc = lenN bs /\ lenN enc = size_box t /\
    decode enc = Ok (norm_box t, []) /\ erase_rsv (norm_box t) = erase_rsv t /\
    raw_box false (norm_box t) = Ok enc /\ encode_w (norm_box t) = Ok enc /\ encode_sw (norm_box t) = Ok enc) /\
  (forall bs t rest enc, decode bs = Ok (t, rest) -> encode_w t = Ok enc -> gen2_ok enc = true ->
   raw_box false t = Ok enc /\
   exists t2, decode enc = Ok (t2, []) /\ exact_box t2 = true /\ norm_box t2 = t2 /\
    raw_box false t2 = Ok enc /\ encode_w t2 = Ok enc /\ encode_sw t2 = Ok enc /\ size_box t2 = lenN enc).
Proof. exact (conj fixpoint_full generation2). Qed.
Print Assumptions C01_fixpoint.

(* the special case proved first (inputs whose reserved bytes already have the encoder's values: enc = input) *)
Theorem C01_fixpoint_partial : forall bs t, bytes_ok bs = true -> decode bs = Ok (t, []) -> why_box t = [] ->
  exists enc, raw_box false t = Ok enc /\ decode enc = Ok (t, []) /\ raw_box false t = Ok enc /\ enc = bs.
Proof. exact fixpoint_partial. Qed.
Print Assumptions C01_fixpoint_partial.

Theorem C01_file_boxtree_partial : forall bs ts, bytes_ok bs = true -> decode_file bs = Ok ts ->
  flat_map why_box ts = [] -> encode_seq false ts = Ok bs /\ decode_file bs = Ok ts.
Proof. exact seq_explained. Qed.
Print Assumptions C01_file_boxtree_partial.

(* the hypotheses of C01_fixpoint are satisfiable by an input that C01_fixpoint_partial does not cover: an
   stsd{avc1{avcC colr}} whose reserved bytes / bits are not the encoder's; the encoders' bytes differ from it and
   are a fixed point *)
Example C01_ex_fixpoint : bytes_ok ex_fix_bytes = true /\ decode ex_fix_bytes = Ok (treeof ex_fix_bytes, []) /\
  exact_box (treeof ex_fix_bytes) = true /\ why_box (treeof ex_fix_bytes) <> [] /\
  raw_box false (treeof ex_fix_bytes) = Ok ex_fix_enc /\ ex_fix_enc <> ex_fix_bytes /\
  decode ex_fix_enc = Ok (norm_box (treeof ex_fix_bytes), []) /\
  raw_box false (norm_box (treeof ex_fix_bytes)) = Ok ex_fix_enc.
Proof. exact ex_fix_ok. Qed.

(* --- what the guards exclude is really lost (witnesses replayed on the Go code by the check) --- *)
(* witnesses of the version >= 2 defect of mvhd / tkhd (decode on version==1, encode on Version==0, Size on
   Version==1: "overflow in SliceWriter"), refuted before the repairs 5633466 / 1982f88, now fixed points *)
Theorem C01_leaf_mvhd_v2_fixed : exists t, decode w_mvhd_v2 = Ok (t, []) /\ encode_w t = Ok w_mvhd_v2 /\ encode_sw t = Ok w_mvhd_v2.
Proof. exact mvhd_v2_fixed. Qed.
Print Assumptions C01_leaf_mvhd_v2_fixed.

Theorem C01_leaf_tkhd_v2_fixed : exists t, decode w_tkhd_v2 = Ok (t, []) /\ encode_w t = Ok w_tkhd_v2 /\ encode_sw t = Ok w_tkhd_v2.
Proof. exact tkhd_v2_fixed. Qed.
Print Assumptions C01_leaf_tkhd_v2_fixed.

Theorem C01_trun_refuted : exists bs t, decode bs = Ok (t, []) /\ encode_w t = Err.
Proof. exact trun_offset0_refuted. Qed.
Print Assumptions C01_trun_refuted.

(* trailing body bytes are accepted and dropped *)
Theorem C01_trailing_refuted : exists bs t rest enc,
  decode bs = Ok (t, rest) /\ exact_box t = false /\ encode_w t = Ok enc /\ enc ++ rest <> bs.
Proof. exact mfhd_trailing_refuted. Qed.
Print Assumptions C01_trailing_refuted.

(* one witness per defect class the model exposes (the reasons of why_box listed as known findings) *)
Theorem C01_visual_padding_refuted : refutes w_vis_pad [(n_avc1, RRsv false 3)].
Proof. exact vis_pad_refuted. Qed.
Print Assumptions C01_visual_padding_refuted.
Theorem C01_visual_depth_refuted : refutes w_vis_depth [(n_hvc1, RRsv false 4)].
Proof. exact vis_depth_refuted. Qed.
Print Assumptions C01_visual_depth_refuted.
Theorem C01_audio_fraction_refuted : refutes w_audio_frac [(n_mp4a, RRsv false 3)].
Proof. exact audio_frac_refuted. Qed.
Print Assumptions C01_audio_fraction_refuted.
Theorem C01_avcC_bits_refuted : refutes w_avcc_bits [(n_avcC, RRsv true 0); (n_avcC, RRsv true 1)].
Proof. exact avcc_bits_refuted. Qed.
Print Assumptions C01_avcC_bits_refuted.
Theorem C01_avcC_extra_refuted : refutes w_avcc_extra [(n_avcC, RSizeBig); (n_avcC, RRsv false 5)].
Proof. exact avcc_extra_refuted. Qed.
Print Assumptions C01_avcC_extra_refuted.
Theorem C01_colr_bits_refuted : refutes w_colr_bits [(n_colr, RRsv true 0)].
Proof. exact colr_bits_refuted. Qed.
Print Assumptions C01_colr_bits_refuted.
Theorem C01_url_tail_refuted : refutes w_url_tail [(n_url, RSizeBig)].
Proof. exact url_tail_refuted. Qed.
Print Assumptions C01_url_tail_refuted.
Theorem C01_senc_zero_fixed : exists t rest enc,
  decode w_senc_zero = Ok (t, rest) /\ raw_box false t = Ok enc /\ enc ++ rest = w_senc_zero /\ why_box t = [].
Proof. exact senc_zero_fixed. Qed.
Print Assumptions C01_senc_zero_fixed.
Theorem C01_senc_large_fixed : decode w_senc_large = Err.
Proof. exact senc_large_fixed. Qed.
Print Assumptions C01_senc_large_fixed.
Theorem C01_elng_unterminated_refuted : refutes w_elng_unterminated [(n_elng, RSizeBig); (n_elng, RRsv false 0)].
Proof. exact elng_unterminated_refuted. Qed.
Print Assumptions C01_elng_unterminated_refuted.
(* finding C01-K77 (repaired by repo commit 89e24df): an SLConfigDescriptor announcing 0 bytes was accepted (the configuration
   byte was read anyway) and written back with size 1; now it is refused, kept as UnknownData, and the input is reproduced *)
Theorem C01_esds_slconfig_size_fixed : decode (ex_esds 0) = Ok (treeof (ex_esds 0), []) /\ raw_box false (treeof (ex_esds 0)) = Ok (ex_esds 0) /\
  match treeof (ex_esds 0) with
  | MLeaf _ (LEsds 0 0 1 1 0 _ [] _ (DDcd 1 64 21 0 128000 128000 [DDsi 1 [17; 144]] []) [] [6; 0; 2] false) _ => True
  | _ => False
  end.
Proof. exact esds_slc0_fixed. Qed.
Print Assumptions C01_esds_slconfig_size_fixed.
Theorem C01_stsd_nobody_fixed : decode w_stsd_nobody = Err.
Proof. exact stsd_nobody_fixed. Qed.
Print Assumptions C01_stsd_nobody_fixed.

(* non-vacuity: a moof and a moov tree decode, are exact, and re-encode to themselves *)
Example C01_ex_moof : decode ex_moof_bytes = Ok (ex_moof_tree, []) /\ exact_box ex_moof_tree = true /\
  bytes_ok ex_moof_bytes = true /\ encode_w ex_moof_tree = Ok ex_moof_bytes.
Proof. exact ex_moof_ok. Qed.
Example C01_ex_moov : decode ex_moov_bytes = Ok (ex_moov_tree, []) /\ exact_box ex_moov_tree = true /\
  bytes_ok ex_moov_bytes = true.
Proof. exact ex_moov_ok. Qed.

(* stsd{avc1{avcC btrt}}: the MPre case of C01_tree / C01_explained is inhabited *)
Example C01_ex_stsd : exact_box (treeof ex_stsd_bytes) = true /\ why_box (treeof ex_stsd_bytes) = [] /\
  decode ex_stsd_bytes = Ok (treeof ex_stsd_bytes, []) /\ raw_box false (treeof ex_stsd_bytes) = Ok ex_stsd_bytes /\
  bytes_ok ex_stsd_bytes = true /\ lenN ex_stsd_bytes = 151.
Proof. exact ex_stsd_ok. Qed.

(* a typical AAC esds: decodes to ES{DecoderConfig{DecSpecificInfo 11 90}, SLConfig 2}, exact, reproduced *)
Example C01_ex_esds : bytes_ok (ex_esds 1) = true /\ decode (ex_esds 1) = Ok (treeof (ex_esds 1), []) /\
  exact_box (treeof (ex_esds 1)) = true /\ why_box (treeof (ex_esds 1)) = [] /\
  raw_box false (treeof (ex_esds 1)) = Ok (ex_esds 1) /\
  match treeof (ex_esds 1) with
  | MLeaf _ (LEsds 0 0 1 1 0 _ [] _ (DDcd 1 64 21 0 128000 128000 [DDsi 1 [17; 144]] []) [DSlc 1 2 []] [] true) _ => True
  | _ => False
  end.
Proof. exact ex_esds_ok. Qed.

(* COMPLETE REAL FILES of /repo testdata decode inside the model, are exact, and the Go encoders' bytes are the file:
   an init segment (ftyp moov{... stsd{avc3{avcC}} ...}) and a media segment (styp sidx moof{mfhd traf{tfhd tfdt trun}} mdat) *)
Example C01_real_init_segment :
  decode_file rf_init_video = Ok (seq_of rf_init_video) /\ names_of (seq_of rf_init_video) = [n_ftyp; n_moov] /\
  forallb exact_box (seq_of rf_init_video) = true /\ bytes_ok rf_init_video = true /\
  encode_seq false (seq_of rf_init_video) = Ok rf_init_video.
Proof. exact real_init_ok. Qed.
(* an AAC init segment (mp4a{esds}) and an HEVC init segment (hvc1{hvcC}): no box is left opaque *)
Example C01_real_init_aac :
  decode_file rf_init_aac = Ok (seq_of rf_init_aac) /\ names_of (seq_of rf_init_aac) = [n_ftyp; n_skip; n_moov] /\
  forallb exact_box (seq_of rf_init_aac) = true /\ flat_map why_box (seq_of rf_init_aac) = [] /\
  count_leaves n_esds (seq_of rf_init_aac) = 1%nat /\ bytes_ok rf_init_aac = true /\
  encode_seq false (seq_of rf_init_aac) = Ok rf_init_aac.
Proof. exact real_init_aac_ok. Qed.
Example C01_real_init_hvc1 :
  decode_file rf_init_hvc1 = Ok (seq_of rf_init_hvc1) /\ names_of (seq_of rf_init_hvc1) = [n_ftyp; n_moov] /\
  forallb exact_box (seq_of rf_init_hvc1) = true /\ flat_map why_box (seq_of rf_init_hvc1) = [] /\
  count_leaves n_hvcC (seq_of rf_init_hvc1) = 1%nat /\ bytes_ok rf_init_hvc1 = true /\
  encode_seq false (seq_of rf_init_hvc1) = Ok rf_init_hvc1.
Proof. exact real_init_hvc1_ok. Qed.
Example C01_real_media_segment :
  decode_file rf_media_seg = Ok (seq_of rf_media_seg) /\
  names_of (seq_of rf_media_seg) = [n_styp; n_sidx; n_moof; n_mdat] /\
  forallb exact_box (seq_of rf_media_seg) = true /\ bytes_ok rf_media_seg = true /\
  encode_seq false (seq_of rf_media_seg) = Ok rf_media_seg.
Proof. exact real_media_ok. Qed.

(* ---------------------------------------------------------------- DecodeFileSR with its File-level acceptance rules *)
(* decode_file_sr (C01FileModel) is the loop of DecodeFileSR: DecodeBoxSR per top-level box AND the rules that are not
   box-local (moov needs the first-trak/mdia/minf/stbl/stts chain; in a fragmented file an mdat must follow a moof, in a
   progressive file only one mdat may have a payload; a traf with an unparsed senc and a moov needs a tfhd; a cut-short mdat
   ends the loop).  The loop is exactly the box loop filtered by the rules as long as no mdat is cut short: *)
Theorem C01_file_rules : forall bs ts, no_trunc ts = true ->
  (decode_file_sr bs = FOk ts <-> (decode_file bs = Ok ts /\ file_rules fs0 (map erase_rsv ts) = true)).
Proof.
  exact (fun bs ts Hn => conj (fun H => loop_sound (S (length bs)) fs0 bs ts H Hn)
                              (fun H => loop_complete (S (length bs)) fs0 bs ts (proj1 H) (proj2 H) Hn)).
Qed.
Print Assumptions C01_file_rules.

(* C01_file_boxtree, with the rules (first conjunct): for EVERY byte string that DecodeFileSR accepts (FOk: box-local AND
   File-level rules; files that reach TrafBox.ParseReadSenc have the separate outcome FSencParse and are outside, see C02/C04) whose
   top-level trees are exact: File.Encode (Box.Encode per child: progressive files, and fragmented files in EncModeBoxTree) and
   File.EncodeSW (one writer of File.Size() bytes) succeed with the same bytes enc of the input's length; enc is accepted AGAIN by
   DecodeFileSR with the same trees up to captured reserved bytes and the same IsFragmented(); encoding those gives enc again on both
   paths.  Accepted files outside the hypothesis: not exact (the reasons of why_box, per box) -- at the File level that adds exactly
   the cut-short mdat (C01_file_truncated_mdat_refuted).  Second conjunct: the same for the bare box loop
   (no File-level rule applied: every sequence of acceptable boxes). *)
Theorem C01_file_boxtree :
  (forall bs ts, bytes_ok bs = true -> decode_file_sr bs = FOk ts -> forallb exact_box ts = true ->
   exists enc, file_encode_w ts = Ok enc /\ file_encode_sw ts = Ok enc /\ encode_seq false ts = Ok enc /\ lenN enc = lenN bs /\
     decode_file_sr enc = FOk (map norm_box ts) /\ (file_frag (map norm_box ts) = file_frag ts) /\
     file_encode_w (map norm_box ts) = Ok enc /\ file_encode_sw (map norm_box ts) = Ok enc) /\
  (forall bs ts, bytes_ok bs = true -> decode_file bs = Ok ts -> forallb exact_box ts = true ->
   exists enc, encode_seq false ts = Ok enc /\ encode_seq_w ts = Ok enc /\ lenN enc = lenN bs /\
     decode_file enc = Ok (map norm_box ts) /\ encode_seq false (map norm_box ts) = Ok enc /\
     encode_seq_w (map norm_box ts) = Ok enc) /\
  (* third conjunct: the SECOND GENERATION of an accepted file that File.Encode does NOT reproduce (no exactness
     hypothesis on ts: an inexact top-level box, a cut-short mdat): when the bytes enc that File.Encode wrote are accepted again by
     DecodeFileSR and no top-level tree has a reason (gen2_file_ok enc: a boolean the driver evaluates on the REAL output, H lines),
     enc is a fixed point of File.Encode, File.EncodeSW and the raw encoder *)
  (forall bs ts enc, decode_file_sr bs = FOk ts -> file_encode_w ts = Ok enc -> gen2_file_ok enc = true ->
   exists ts2, decode_file_sr enc = FOk ts2 /\ forallb exact_box ts2 = true /\ map norm_box ts2 = ts2 /\
     file_encode_w ts2 = Ok enc /\ file_encode_sw ts2 = Ok enc /\ encode_seq false ts2 = Ok enc).
Proof. exact (conj file_accepted_fixpoint (conj file_fixpoint_full generation2_file)). Qed.
Print Assumptions C01_file_boxtree.

(* the hypotheses are satisfiable, in both configurations of the quantifier: PROGRESSIVE files with the mdat BEFORE the moov and
   with the moov before the mdat (File.Encode does not move boxes nor fix up offsets), empty mdats around the one with a
   payload, and a FRAGMENTED file (box-tree mode) *)
Example C01_ex_progressive_mdat_first : file_ok fx_prog_mdat_first [n_ftyp; n_mdat; n_moov] false.
Proof. exact ex_prog_mdat_first_ok. Qed.
Example C01_ex_progressive_moov_first : file_ok fx_prog_moov_first [n_ftyp; n_moov; n_free; n_mdat] false.
Proof. exact ex_prog_moov_first_ok. Qed.
Example C01_ex_progressive_empty_mdats : file_ok fx_prog_empty_mdats [n_ftyp; n_mdat; n_mdat; n_mdat; n_moov] false.
Proof. exact ex_prog_empty_mdats_ok. Qed.
Example C01_ex_fragmented_file : file_ok fx_frag [n_ftyp; n_moov; n_styp; n_moof; n_mdat; n_moof; n_mdat] true.
Proof. exact ex_frag_ok. Qed.
(* the rules do refuse files whose boxes are all accepted (and exact) one by one *)
Example C01_ex_file_rules_refuse : rule_refuses fx_two_mdats /\ rule_refuses fx_frag_mdat_first /\ rule_refuses fx_nochain /\
  decode_file_sr fx_trailing = FErr /\ decode_file_sr fx_size0 = FErr.
Proof. exact (conj ex_two_mdats_refused (conj ex_frag_mdat_first_refused (conj ex_nochain_refused ex_trailing_refused))). Qed.

(* an ACCEPTED file that is NOT reproduced: the last mdat announces 100 bytes, 4 are there; DecodeMdatSR keeps an empty payload
   and the loop ends; File.Encode writes an 8-byte mdat (known finding leaf-decoders/header-size-ignored, replayed on the
   real code by the whole-file correspondence and search) *)
Theorem C01_file_truncated_mdat_refuted :
  decode_file_sr fx_trunc_mdat = FOk (fseq_of fx_trunc_mdat) /\ map box_name (fseq_of fx_trunc_mdat) = [n_ftyp; n_moov; n_mdat] /\
  forallb exact_box (fseq_of fx_trunc_mdat) = false /\ file_encode_w (fseq_of fx_trunc_mdat) = Ok (fenc_of fx_trunc_mdat) /\
  lenN fx_trunc_mdat = 504 /\ lenN (fenc_of fx_trunc_mdat) = 500 /\ firstn 492 (fenc_of fx_trunc_mdat) = firstn 492 fx_trunc_mdat.
Proof. exact file_trunc_mdat_refuted. Qed.
Print Assumptions C01_file_truncated_mdat_refuted.

(* a REAL udta box (mp4/testdata/bbb5s_aac_sidx.mp4): udta{meta{hdlr ilst{(c)too{data}}}} with the ISO form of MetaBox, and the same
   metadata in a QuickTime meta atom: every box typed, exact, no reason, fixed points of Encode and EncodeSW *)
Example C01_ex_meta_iso : fixed_point rb_udta_meta /\
  match treeof rb_udta_meta with
  | MCont _ [MPre _ (LFullOnly _ 0 0) _ [MLeaf _ (LHdlr _ _ _ _ _ _) _; MCont _ [MCont _ [MLeaf _ (LData 1 0 _) _]]]] => True
  | _ => False
  end.
Proof. exact ex_meta_iso_ok. Qed.
Example C01_ex_meta_quicktime : fixed_point rb_udta_meta_qt /\
  match treeof rb_udta_meta_qt with
  | MCont _ [MCont h [MLeaf _ (LHdlr _ _ _ _ _ _) _; MCont _ [MCont _ [MLeaf _ (LData 1 0 _) _]]]] => h_name h = n_meta
  | _ => False
  end.
Proof. exact ex_meta_qt_ok. Qed.
Example C01_ex_mime_wvtt : fixed_point ex_mime /\ fixed_point ex_wvtt.
Proof. exact (conj ex_mime_ok (proj1 ex_wvtt_ok)). Qed.
(* finding C01-F7, repaired by repo commit f36e540: the type indicator (21) and the locale of an iTunes value atom survive *)
Theorem C01_data_type_fixed : fixed_point ex_data21 /\
  match treeof ex_data21 with MLeaf _ (LData 21 25966 [0; 7]) _ => True | _ => False end.
Proof. exact data_type_fixed. Qed.
Print Assumptions C01_data_type_fixed.
(* dac3 / dec3 (AC-3 and E-AC-3 specific boxes, read through bits.Reader): typed, exact, fixed points; their guards exclude a dac3
   payload that is not InitialZeroes + 3 bytes (accepted: the bit reader's error is not looked at; C01-K73) and dec3 substreams
   whose reserved bits are not 0 (dropped by the decoder; C01-K58) *)
Example C01_ex_dac3_dec3 : fixed_point ex_dac3 /\ fixed_point ex_dac3_zeroes /\ fixed_point ex_dec3 /\
  match treeof ex_dec3 with MLeaf _ (LDec3 384 [(0, 16, 0, 0, 7, 1, 1, 289); (1, 16, 1, 0, 7, 0, 0, 0)] [170] true) _ => True | _ => False end.
Proof. exact (conj (proj1 ex_dac3_ok) (conj (proj1 (proj2 ex_dac3_ok)) ex_dec3_ok)). Qed.

(* what the ghost guards of leaf_guard exclude is really NOT reproduced -- one witness each, replayed on the real code by the search:
   wvtt cut inside its eight prefix bytes (12 bytes in, 16 out); an esds size field of eleven bytes overflowing readSizeSize's
   uint64 (C01-K77); a dac3 payload of two bytes (C01-K73); a reserved bit of a dec3 substream (C01-K58).  sgpd has NO guard any
   more: the reserved byte of a seig entry is a captured chunk (stable_sgpd replays the entry loop on the zeroed bytes), an input
   with such a byte (0x55) is exact -- inside C01_fixpoint -- and its only reason is that byte (C01-K58).  An esds that merely kept
   UnknownData IS reproduced (C01_esds_slconfig_size_fixed); it is outside C01_fixpoint only because print-then-parse is not proved
   for that shape. *)
Theorem C01_guards_refuted :
  (decode ex_wvtt_short = Ok (treeof ex_wvtt_short, [0; 0; 0; 0]) /\ exact_box (treeof ex_wvtt_short) = false /\
   leaf_guard (LWvtt 0 true) = false /\ lenN ex_wvtt_short = 12 /\
   match encode_w (treeof ex_wvtt_short) with Ok enc => lenN enc = 16 | _ => False end) /\
  refutes w_esds_overflow [(n_esds, RGuard); (n_esds, RRsv false 2)] /\
  (refutes w_sgpd_seig_rsv [(n_sgpd, RRsv true 0)] /\ exact_box (treeof w_sgpd_seig_rsv) = true) /\
  refutes w_dac3_short [(n_dac3, RSizeSmall); (n_dac3, RGuard)] /\
  refutes w_dec3_rsv [(n_dec3, RGuard)].
Proof. exact (conj wvtt_short_refuted (conj esds_overflow_refuted (conj (conj sgpd_seig_rsv_refuted (proj1 sgpd_seig_rsv_exact)) (conj dac3_short_refuted dec3_rsv_refuted)))). Qed.
Print Assumptions C01_guards_refuted.

(* ---------------------------------------------------------------- the second generation of inputs that are NOT reproduced
   (C01_fixpoint, second conjunct) *)
(* the hypotheses are satisfiable by inputs the first generation really loses something of (url / avcC / mfhd with trailing body
   bytes, a dac3 payload of two bytes, an unterminated elng): accepted, inexact, encoded to different bytes, gen2_ok of those *)
Example C01_ex_generation2 : lossy_then_fixed w_url_tail /\ lossy_then_fixed w_avcc_extra /\ lossy_then_fixed w_mfhd_trailing /\
  lossy_then_fixed w_dac3_short /\ lossy_then_fixed w_elng_unterminated.
Proof. exact gen2_examples. Qed.
(* gen2_ok is sufficient, not necessary: the esds that kept UnknownData is written back unchanged, the guard still names a reason *)
Example C01_ex_generation2_guard : encode_w (treeof (ex_esds 0)) = Ok (ex_esds 0) /\ gen2 (ex_esds 0) = G2Why /\
  decode (ex_esds 0) = Ok (treeof (ex_esds 0), []).
Proof. exact gen2_guard_example. Qed.
(* File level (C01_file_boxtree, third conjunct): the file with the cut-short mdat loses 4 bytes in the first generation; the 500
   bytes File.Encode writes satisfy gen2_file_ok *)
Example C01_ex_generation2_file : decode_file_sr fx_trunc_mdat = FOk (fseq_of fx_trunc_mdat) /\ forallb exact_box (fseq_of fx_trunc_mdat) = false /\
  file_encode_w (fseq_of fx_trunc_mdat) = Ok (fenc_of fx_trunc_mdat) /\ lenN (fenc_of fx_trunc_mdat) = 500 /\ lenN fx_trunc_mdat = 504 /\
  gen2_file_ok (fenc_of fx_trunc_mdat) = true.
Proof. exact gen2_file_example. Qed.

(* finding C01-K79 (known; found by the second-generation correspondence): DecodeElngSR decides "full-box header missing" from the
   payload length alone (< 7).  The library's own encoding of CreateElng("x") (payload 6) is read back as a bare string starting with
   the zero of version/flags: Language "" and missingFullBox, bytes left over; an accepted elng with bytes after an empty language
   goes 16 -> 13 -> 9 bytes: the encoders' output is accepted again only in part (G2Rest) and the third encoding differs.  This is
   what the hypothesis gen2_ok of C01_fixpoint's second conjunct excludes. *)
Theorem C01_elng_generation2_refuted :
  (raw_box false (MLeaf {| h_name := n_elng; h_size := 14; h_len := 8 |} (LElng false 0 0 [120]) [[120; 0]]) = Ok w_elng_x /\
   exists h rsv rest, decode w_elng_x = Ok (MLeaf h (LElng true 0 0 []) rsv, rest) /\ rest <> []) /\
  (exists t rest enc t2 rest2 enc3, decode w_elng_chain = Ok (t, rest) /\ encode_w t = Ok enc /\ gen2 enc = G2Rest /\
     decode enc = Ok (t2, rest2) /\ rest2 <> [] /\ encode_w t2 = Ok enc3 /\ lenN enc = 13 /\ lenN enc3 = 9).
Proof. exact elng_generation2_refuted. Qed.
Print Assumptions C01_elng_generation2_refuted.
