(* C01SizeProofs.v — Size() = bytes written for every leaf kind of the C01 model (the leaf part of C02, kept with the
   model because the fixed-point theorem of C01 needs it: a re-encoded box fills exactly its announced size). *)
From V.lib Require Import Base.
From V.c01 Require Import C01Codec C01Model C01LeafProofs C01Leaf6Proofs C01TreeProofs C01EsdsProofs.

(* ---------------------------------------------------------------- leaves *)
Definition leaf_size_guard (l : leaf) : bool :=
  match l with
  | LFtyp n _ => lenN n =? 4
  | LFree n _ => lenN n =? 4
  | LMdat _ data => lenN data <? 18446744073709551600
  | LTrun _ _ _ _ samples => lenN samples <? 4294967296
  | LStts _ _ es => lenN es <? 4294967296
  | LStsz _ _ uni num ss => if 0 <? uni then lenN ss =? 0 else lenN ss =? num
  | LTab n _ _ _ items => (lenN n =? 4) && (lenN items <? 4294967296)
  | LCtts _ _ _ offs => lenN offs <? 4294967296
  | LElst _ _ es => lenN es <? 4294967296
  | LSaiz _ f at_ _ dflt cnt info => (negb (has f 1) || (lenN at_ =? 4)) && (negb (dflt =? 0) || (cnt <=? lenN info))
  | LSaio _ f at_ _ os => (negb (has f 1) || (lenN at_ =? 4)) && (lenN os <? 4294967296)
  | LSbgp _ _ gt _ es => (lenN gt =? 4) && (lenN es <? 4294967296)
  | LTenc _ _ _ _ _ _ kid _ => lenN kid =? 16
  | LFrma f => lenN f =? 4
  | LFullOnly n _ _ => lenN n =? 4
  | LTfra _ _ _ _ _ _ es => lenN es <? 4294967296
  | LPssh _ _ sid kids _ => (lenN sid =? 16) && forallb (fun k => lenN k =? 16) kids
  | LVisual n _ _ _ _ _ _ cn => (lenN n =? 4) && (lenN cn <=? 31)
  | LAudio n _ _ _ _ => lenN n =? 4
  | LColr ct _ _ _ _ _ => lenN ct =? 4
  | LSchm _ _ st _ _ => lenN st =? 4
  (* readBoxSize is what the fields need: holds of an exact decoded senc whose data is written back *)
  | LSenc _ cnt raw rs np => rs =? 16 + (if senc_keeps np cnt rs then lenN raw else 0)
  | LUuidTfrf _ _ cnt es => cnt <=? lenN es
  | LUuidSenc _ cnt raw rs np => rs =? 16 + (if senc_keeps np cnt rs then lenN raw else 0)
  | LUuidUnk u _ => lenN u =? 16
  | LSgpd v _ gt dlen _ items =>
      (lenN gt =? 4) && forallb (fun it => lenN (wr_sge (snd it) 0) =? fst it) items &&
      ((dlen =? 0) || forallb (fun it => fst it =? dlen) items) && ((1 <=? v) || (lenN items =? 0))
  | _ => true
  end.

Lemma lenN_wr_if c n v : lenN (wr_if c n v) = if c then N.of_nat n else 0.
Proof. unfold wr_if. destruct c; [apply lenN_be_enc|reflexivity]. Qed.

Lemma lenN_if {A} (c : bool) (x y : list A) : lenN (if c then x else y) = if c then lenN x else lenN y.
Proof. now destruct c. Qed.

Lemma lenN_wr_tsample f s : lenN (wr_tsample f s) = trun_bps f.
Proof. unfold wr_tsample, trun_bps. rewrite !lenN_app, !lenN_wr_if. cbn [N.of_nat Pos.of_succ_nat Pos.succ]. lia. Qed.

Lemma lenN_wr_pair p : lenN (wr_pair p) = 8.
Proof. unfold wr_pair. now rewrite lenN_app, !lenN_be_enc. Qed.

Lemma lenN_wr_sref p : lenN (wr_sref p) = 12.
Proof. unfold wr_sref. now rewrite !lenN_app, !lenN_be_enc. Qed.

Lemma lenN_wr_triple p : lenN (wr_triple p) = 12.
Proof. unfold wr_triple. now rewrite !lenN_app, !lenN_be_enc. Qed.

Lemma lenN_wr_elst w e : lenN (wr_elst w e) = 2 * N.of_nat w + 4.
Proof. destruct e as [[[d t] ri] rf]. unfold wr_elst. rewrite !lenN_app, !lenN_be_enc. lia. Qed.

Lemma lenN_wr_tfra w a b c e : lenN (wr_tfra w a b c e) = 2 * N.of_nat w + N.of_nat a + N.of_nat b + N.of_nat c.
Proof. destruct e as [[[[t mo] x] y] z]. unfold wr_tfra. rewrite !lenN_app, !lenN_be_enc. lia. Qed.

Lemma lenN_wr_stsc es single : forall ids, lenN (wr_stsc es single ids) = 12 * lenN es.
Proof.
  induction es as [|[fc spc] t IH]; intros ids; [reflexivity|].
  cbn [wr_stsc]. rewrite !lenN_app, !lenN_be_enc, IH, lenN_cons. lia.
Qed.

Lemma lenN_wr_ctts offs : forall ends, lenN ends = 1 + lenN offs -> lenN (wr_ctts ends offs) = 8 * lenN offs.
Proof.
  induction offs as [|o ot IH]; intros ends H; [destruct ends; reflexivity|].
  destruct ends as [|e0 [|e1 et]]; rewrite ?lenN_cons, ?lenN_nil in H; try lia.
  change (wr_ctts (e0 :: e1 :: et) (o :: ot)) with
    (be_enc 4 (u32 (e1 + 4294967296 - e0)) ++ be_enc 4 o ++ wr_ctts (e1 :: et) ot).
  rewrite !lenN_app, !lenN_be_enc, IH, lenN_cons by (rewrite lenN_cons; lia). lia.
Qed.

Lemma lenN_firstn {A} (l : list A) n : n <= lenN l -> lenN (firstn (N.to_nat n) l) = n.
Proof. unfold lenN. intros H. rewrite firstn_length. lia. Qed.

Lemma lenN_flat_id (kids : list (list N)) : forallb (fun k => lenN k =? 16) kids = true ->
  lenN (flat_map (fun k => k) kids) = 16 * lenN kids.
Proof.
  induction kids as [|k t IH]; intros H; [reflexivity|]. cbn [forallb] in H. apply andb_true_iff in H.
  destruct H as [Hk Ht]. apply N.eqb_eq in Hk. cbn [flat_map]. rewrite lenN_app, lenN_cons, IH, Hk by assumption. lia.
Qed.

Lemma lenN_wr_nalus l : lenN (flat_map wr_nalu l) = sumN (map (fun x => 2 + lenN x) l).
Proof.
  induction l as [|x t IH]; [reflexivity|]. cbn [flat_map map sumN]. unfold wr_nalu at 1.
  rewrite !lenN_app, lenN_be_enc, IH. lia.
Qed.

Lemma lenN_wr_narrs l : lenN (flat_map wr_narr l) = sumN (map (fun a => 3 + sumN (map (fun x => 2 + lenN x) (snd a))) l).
Proof.
  induction l as [|a t IH]; [reflexivity|]. cbn [flat_map map sumN]. unfold wr_narr at 1.
  rewrite !lenN_app, !lenN_be_enc, lenN_wr_nalus, IH. lia.
Qed.

Lemma lenN_wr_subsample w s : lenN (wr_subsample w s) = N.of_nat w + 6.
Proof. destruct s as [[[a b] c] d]. unfold wr_subsample. rewrite !lenN_app, !lenN_be_enc. lia. Qed.

Lemma lenN_wr_subs_entries v l :
  lenN (flat_map (wr_subs_entry (subs_w v)) l) = sumN (map (fun e => 6 + lenN (snd e) * (if v =? 1 then 10 else 8)) l).
Proof.
  induction l as [|e t IH]; [reflexivity|]. cbn [flat_map map sumN]. unfold wr_subs_entry at 1.
  rewrite !lenN_app, !lenN_be_enc, (lenN_flat_map_const _ _ _ (lenN_wr_subsample _)), IH.
  unfold subs_w. destruct (v =? 1); lia.
Qed.

Lemma lenN_wr_pairw w p : lenN (wr_pairw w p) = 2 * N.of_nat w.
Proof. unfold wr_pairw. rewrite lenN_app, !lenN_be_enc. lia. Qed.

Lemma lenN_sgpd_items dlen items : forallb (fun it => lenN (wr_sge (snd it) 0) =? fst it) items = true ->
  lenN (flat_map (wr_sgpd_item dlen) (combine items (map (fun _ => 0) items))) =
  sumN (map (fun it => (if dlen =? 0 then 4 else 0) + fst it) items).
Proof.
  induction items as [|it t IH]; intros H; [reflexivity|]. cbn [forallb] in H. apply andb_true_iff in H. destruct H as [H1 H2].
  apply N.eqb_eq in H1. cbn [map combine flat_map sumN]. unfold wr_sgpd_item at 1. cbn [fst snd].
  rewrite !lenN_app, H1, (IH H2). destruct (dlen =? 0); rewrite ?lenN_be_enc; change (lenN (@nil N)) with 0; lia.
Qed.
Lemma sumN_const_fst dlen (items : list (N * sge)) : forallb (fun it => fst it =? dlen) items = true ->
  sumN (map (fun it => 0 + fst it) items) = lenN items * dlen.
Proof.
  induction items as [|it t IH]; intros H; [reflexivity|]. cbn [forallb] in H. apply andb_true_iff in H. destruct H as [H1 H2].
  apply N.eqb_eq in H1. cbn [map sumN]. rewrite (IH H2), lenN_cons, H1. lia.
Qed.

Lemma lenN_unity : lenN unity_matrix = 36.
Proof. reflexivity. Qed.

Local Opaque zeros unity_matrix.

Lemma u32_ltb x : (x <? 4294967296) = true -> u32 x = x.
Proof. intros H. apply N.ltb_lt in H. now apply N.mod_small. Qed.

(* lenN of a printed body: through ++, if and the item writers first (this discards the arguments of be_enc, among
   them the bit-fields built from the reserved values), and only then the lengths of the reserved chunks themselves *)
Ltac lens :=
  repeat first [rewrite lenN_app | rewrite lenN_cons | rewrite lenN_if];
  rewrite ?lenN_be_enc, ?lenN_wr_if,
    ?(lenN_flat_map_const _ _ _ (lenN_wr_tsample _)), ?(lenN_flat_map_const _ _ _ lenN_wr_pair),
    ?(lenN_flat_map_const _ _ _ lenN_wr_sref), ?(lenN_flat_map_const _ _ _ (lenN_wr_elst _)),
    ?(lenN_flat_map_const _ _ _ (lenN_wr_tfra _ _ _ _)), ?(lenN_flat_map_const _ _ _ (lenN_wr_pairw _)),
    ?(lenN_flat_map_const _ _ _ (lenN_be_enc _)), ?lenN_wr_stsc, ?lenN_wr_nalus;
  cbn [dflt_rsv chunk nth N.of_nat Pos.of_succ_nat Pos.succ];
  rewrite ?lenN_app, ?lenN_zeros, ?lenN_unity, ?lenN_cons, ?(@lenN_nil N).
Ltac lensolve := lens; lia.

Lemma leaf_name_len l : leaf_size_guard l = true -> lenN (leaf_name l) = 4.
Proof.
  destruct l; cbn [leaf_size_guard leaf_name]; intros H; try reflexivity;
    try (apply andb_true_iff in H; destruct H as [H _]); now apply N.eqb_eq in H.
Qed.

Lemma lenN_leaf_hdr l : lenN (leaf_name l) = 4 -> lenN (leaf_hdr l) = if leaf_large l then 16 else 8.
Proof.
  intros Hn. unfold leaf_hdr, enc_hdr, enc_hdr_large. destruct (leaf_large l); rewrite !lenN_app, !lenN_be_enc, Hn; reflexivity.
Qed.

Lemma lenN_wr_ec3subs_sz l : lenN (flat_map wr_ec3sub l) =
  sumN (map (fun s : N * N * N * N * N * N * N * N => match s with (_, _, _, _, _, _, nds, _) => if 0 <? nds then 4 else 3 end) l).
Proof. exact (lenN_wr_ec3subs l). Qed.

(* the body a leaf encoder writes fills Size() minus the header *)
Lemma body_size l b : body_leaf l (dflt_rsv l) = Ok b -> leaf_size_guard l = true ->
  lenN b + (if leaf_large l then 16 else 8) = size_leaf l.
Proof.
  intros Eb G.
  destruct l; cbn [body_leaf leaf_large size_leaf leaf_size_guard] in Eb, G |- *; try (apply Ok_inj in Eb; subst b).
  - (* ftyp *) lia.
  - lia.
  - (* mdat *) destruct (large || (4294967287 <? lenN data)); lia.
  - lensolve.
  - (* tfhd *) lensolve.
  - (* tfdt *) destruct (version =? 0); lensolve.
  - (* trun *) destruct (has flags 1 && (dataOffset =? 0)); [discriminate|]. apply Ok_inj in Eb. subst b.
    unfold trun_expected. rewrite (u32_ltb _ G). lensolve.
  - (* mvhd *) destruct (version =? 1); lensolve.
  - (* tkhd *) destruct (version =? 1); lensolve.
  - (* sidx *) destruct (version =? 0); lensolve.
  - lensolve.
  - (* mdhd *) destruct (version =? 1); lensolve.
  - (* hdlr *) destruct lacksNull; lensolve.
  - (* stts *) rewrite (u32_ltb _ G). lensolve.
  - (* stsc *) destruct ((single =? 0) && (lenN ids <? lenN entries)); [discriminate|]. apply Ok_inj in Eb. subst b. lensolve.
  - (* stsz *) destruct (0 <? uniform); apply N.eqb_eq in G.
    + rewrite G. cbn [N.eqb]. lensolve.
    + destruct (lenN sizes =? 0) eqn:E0; [apply N.eqb_eq in E0|]; lensolve.
  - (* stco / stss / co64 *) apply andb_true_iff in G. rewrite (u32_ltb _ (proj2 G)). lensolve.
  - lensolve.
  - (* ctts *) destruct (negb (lenN ends =? 1 + lenN offsets)) eqn:Ec; [discriminate|]. apply Ok_inj in Eb. subst b.
    apply negb_false_iff, N.eqb_eq in Ec. rewrite (u32_ltb _ G). lens. rewrite lenN_wr_ctts by assumption. lia.
  - (* elst *) rewrite (u32_ltb _ G). destruct (version =? 1); lensolve.
  - (* saiz *) destruct ((dflt =? 0) && (lenN info <? count)); [discriminate|]. apply Ok_inj in Eb. subst b.
    apply andb_true_iff in G. destruct G as [G1 G2].
    destruct (has flags 1); cbn [negb orb] in G1; [apply N.eqb_eq in G1|];
      (destruct (dflt =? 0); cbn [negb orb] in G2; [apply N.leb_le in G2|]; lens; rewrite ?lenN_firstn by assumption; lia).
  - (* saio *) apply andb_true_iff in G. destruct G as [G1 G2]. rewrite (u32_ltb _ G2).
    destruct (has flags 1); cbn [negb orb] in G1; [apply N.eqb_eq in G1|]; (destruct (version =? 0); lensolve).
  - (* sbgp *) apply andb_true_iff in G. destruct G as [G1 G2]. apply N.eqb_eq in G1. rewrite (u32_ltb _ G2).
    destruct (version =? 1); lensolve.
  - (* prft *) destruct (version =? 0); lensolve.
  - (* tenc *) apply N.eqb_eq in G. cbn [dflt_rsv].
    destruct (version =? 0); (destruct ((isProt =? 1) && (ivSize =? 0)); lensolve).
  - (* frma *) apply N.eqb_eq in G. lia.
  - lensolve.
  - (* smhd *) lensolve.
  - lensolve.
  - lensolve.
  - (* mehd *) destruct (version =? 0); lensolve.
  - (* tfra *) rewrite (u32_ltb _ G). unfold tfra_w, tfra_n. destruct (version =? 1); lensolve.
  - (* pssh *) apply andb_true_iff in G. destruct G as [G1 G2]. apply N.eqb_eq in G1.
    destruct (0 <? version); lens; rewrite ?lenN_flat_id by assumption; lia.
  - (* stsd *) lensolve.
  - (* dref *) lensolve.
  - (* visual *) apply andb_true_iff in G. destruct G as [_ G]. apply N.leb_le in G.
    lens. rewrite N2Nat.id. unfold vis_pad, u8. rewrite (N.mod_small (lenN cname)) by lia.
    replace ((31 + 256 - lenN cname) mod 256) with (31 - lenN cname)
      by (rewrite <- (N.mod_unique (31 + 256 - lenN cname) 256 1 (31 - lenN cname)); lia).
    lia.
  - (* audio *) lensolve.
  - (* url *) destruct noLoc, noZero; lensolve.
  - (* avcC *) destruct (avc_plain profile); cbn [orb]; [|destruct noTrailing]; lensolve.
  - (* btrt *) lensolve.
  - (* pasp *) lensolve.
  - (* colr *) apply N.eqb_eq in G. unfold colr_icc.
    destruct (bytes_eqb ctype n_nclx) eqn:E1.
    + apply Ok_inj in Eb. subst b. lensolve.
    + destruct (bytes_eqb ctype n_nclc) eqn:E2.
      * apply Ok_inj in Eb. subst b. apply bytes_eqb_eq in E2. subst ctype.
        change (bytes_eqb n_nclc n_rICC || bytes_eqb n_nclc n_prof) with false. lensolve.
      * apply Ok_inj in Eb. subst b. destruct (bytes_eqb ctype n_rICC || bytes_eqb ctype n_prof); lensolve.
  - (* clap *) lensolve.
  - (* schm *) apply N.eqb_eq in G. destruct (has flags 1); lensolve.
  - (* cslg *) destruct (version =? 0); cbn [negb]; lensolve.
  - (* senc *) destruct (negb notParsed && has flags 2 && (0 <? count)); [discriminate|]. apply Ok_inj in Eb. subst b.
    apply N.eqb_eq in G. destruct (senc_keeps notParsed count readSize); lensolve.
  - (* emsg *) destruct (version =? 1); lensolve.
  - (* elng *) destruct missing; lensolve.
  - (* kind *) lensolve.
  - (* hvcC *) lens. rewrite lenN_wr_narrs. lia.
  - (* subs *) lens. rewrite lenN_wr_subs_entries. lia.
  - (* esds *) apply (esds_body_len version flags nb esid fl dep url ocr dcd children unknown canon) in Eb. lia.
  - (* uuid tfxd *) unfold uuid_w. destruct (version =? 0); cbn [negb]; lens; change (lenN uuid_tfxd) with 16; lia.
  - (* uuid tfrf *) destruct (lenN entries <? count) eqn:Ec; [discriminate|]. apply Ok_inj in Eb. subst b. apply N.leb_le in G.
    unfold uuid_w. destruct (version =? 0); cbn [negb]; lens; rewrite lenN_firstn by assumption; change (lenN uuid_tfrf) with 16; lia.
  - (* uuid piff senc *) destruct (negb notParsed && has flags 2 && (0 <? count)); [discriminate|]. apply Ok_inj in Eb. subst b.
    apply N.eqb_eq in G. destruct (senc_keeps notParsed count readSize); lens; change (lenN uuid_piff) with 16; lia.
  - (* uuid unknown *) apply N.eqb_eq in G. lensolve.
  - (* sgpd *) apply andb_true_iff in G. destruct G as [G G4]. apply andb_true_iff in G. destruct G as [G G3].
    apply andb_true_iff in G. destruct G as [G1 G2]. apply N.eqb_eq in G1.
    assert (Hit := lenN_sgpd_items dlen items G2).
    destruct (1 <=? version) eqn:E1.
    + destruct (dlen =? 0) eqn:Ed; cbn [negb orb] in *.
      * destruct (2 <=? version); lens; rewrite Hit; lia.
      * rewrite (sumN_const_fst _ _ G3) in Hit. destruct (2 <=? version); lens; rewrite Hit; lia.
    + cbn [orb] in G4. apply N.eqb_eq in G4. assert (items = []) by (destruct items; [reflexivity|rewrite lenN_cons in G4; lia]). subst items.
      replace (2 <=? version) with false by (symmetry; apply N.leb_gt; apply N.leb_gt in E1; lia).
      lens. cbn [map combine flat_map]. lensolve.
  - (* data *) lensolve.
  - (* mime *) destruct lacks; lensolve.
  - (* wvtt *) lensolve.
  - (* dac3 *) lens. rewrite N2Nat.id. lia.
  - (* dec3 *) lens. rewrite lenN_wr_ec3subs_sz. lia.
Qed.

(* bytes written by a leaf encoder = Size() *)
Lemma leaf_size l b :
  raw_leaf l (dflt_rsv l) = Ok b -> leaf_size_guard l = true -> lenN b = size_leaf l.
Proof.
  intros H G. unfold raw_leaf in H.
  destruct (body_leaf l (dflt_rsv l)) as [body| | |] eqn:Eb; try discriminate. injection H as <-.
  rewrite lenN_app, (lenN_leaf_hdr l (leaf_name_len l G)), <- (body_size l body Eb G). lia.
Qed.
