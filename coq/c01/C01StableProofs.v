(* C01StableProofs.v — print-then-parse per leaf kind: re-encoding a decoded leaf with the encoder's values in the
   reserved places (dflt_rsv) and decoding again gives the same leaf, whose captured bytes are now the encoder's.
   For the kinds without reserved bytes this follows from losslessness + locality (C01LocalProofs); for the
   kinds with reserved bytes (mvhd tkhd sidx mdhd hdlr tenc smhd tfra avcC hvcC colr elng sgpd, Visual/AudioSampleEntry,
   wvtt) the decoder is replayed on the new bytes.  Every kind also fills exactly Size() bytes (C01SizeProofs). *)
From V.lib Require Import Base.
From V.c01 Require Import C01Codec C01Model C01LeafProofs C01Leaf2Proofs C01Leaf3Proofs C01Leaf4Proofs C01Leaf5Proofs C01Leaf6Proofs
  C01TableProofs C01TreeProofs C01SizeProofs C01LocalProofs C01EsdsProofs C01SgpdProofs.

(* the header seen at decode is the one the encoder writes (what exact_box asks of a leaf) *)
Definition hdr_fits (h : hdr) (l : leaf) : Prop :=
  h_size h = size_leaf l /\ h_len h = (if leaf_large l then 16 else 8) /\ h_size h < 18446744073709551616.

Definition stable_concl (d : hdr -> parser (leaf * rsvT)) (h : hdr) (r : list N) (l : leaf) (r' : list N) : Prop :=
  exists b', body_leaf l (dflt_rsv l) = Ok b' /\ lenN b' + lenN r' = lenN r /\
             lenN b' + (if leaf_large l then 16 else 8) = size_leaf l /\
             forall r2, d h (b' ++ r2) = Ok ((l, dflt_rsv l), r2).

Definition leaf_stable (d : hdr -> parser (leaf * rsvT)) : Prop :=
  forall h r l rsv r', bytes_ok r = true -> lenN (h_name h) = 4 -> d h r = Ok ((l, rsv), r') ->
    leaf_guard l = true -> hdr_fits h l -> (leaf_name l <> n_mdat -> h_size h <= lenN r + h_len h) ->
    stable_concl d h r l r'.

(* prefixes of stsd, dref, sample entries: the header size covers the children too, nothing is asked of it *)
Definition pre_stable (d : hdr -> parser (leaf * rsvT)) : Prop :=
  forall h r l rsv r', bytes_ok r = true -> lenN (h_name h) = 4 -> d h r = Ok ((l, rsv), r') ->
    leaf_guard l = true -> stable_concl d h r l r'.

Definition norsv (d : hdr -> parser (leaf * rsvT)) : Prop :=
  forall h r l rsv r', d h r = Ok ((l, rsv), r') -> rsv = dflt_rsv l.
Definition sized (d : hdr -> parser (leaf * rsvT)) : Prop :=
  forall h r l rsv r', bytes_ok r = true -> lenN (h_name h) = 4 -> d h r = Ok ((l, rsv), r') ->
    leaf_guard l = true -> hdr_fits h l -> leaf_size_guard l = true.
Definition psized (d : hdr -> parser (leaf * rsvT)) : Prop :=
  forall h r l rsv r', bytes_ok r = true -> lenN (h_name h) = 4 -> d h r = Ok ((l, rsv), r') ->
    leaf_size_guard l = true.

Lemma psized_sized d : psized d -> sized d.
Proof. intros H h r l rsv r' Hok Hn E _ _. exact (H _ _ _ _ _ Hok Hn E). Qed.

(* the two ways to stable_concl: the decoder is replayed on the encoder's bytes, or nothing was captured and the bytes
   decoded, which the encoder reproduces, can be followed by anything *)
Lemma concl_of_replay d h r l r' b : body_leaf l (dflt_rsv l) = Ok b -> leaf_size_guard l = true ->
  lenN b + lenN r' = lenN r -> (forall r2, d h (b ++ r2) = Ok ((l, dflt_rsv l), r2)) -> stable_concl d h r l r'.
Proof. intros Hb Hg Hl Hrep. exists b. repeat split; try assumption. now apply body_size. Qed.

Lemma concl_of_local d h r l r' : leaf_lossless d -> local (d h) -> bytes_ok r = true ->
  d h r = Ok ((l, dflt_rsv l), r') -> leaf_guard l = true -> leaf_size_guard l = true -> stable_concl d h r l r'.
Proof.
  intros Hl Hloc Hok H G Hg. destruct (Hl _ _ _ _ _ Hok H G) as (b & Hb & -> & _).
  apply (concl_of_replay _ _ _ _ _ b Hb Hg); [now rewrite lenN_app|].
  destruct (Hloc _ _ _ H) as (x & Hx & Hall). apply app_inv_tail in Hx. now subst x.
Qed.

Lemma stable_of_local d : leaf_lossless d -> (forall h, local (d h)) -> norsv d -> sized d -> leaf_stable d.
Proof.
  intros Hl Hloc Hn Hs h r l rsv r' Hok Hnm H G Hf _. pose proof (Hs _ _ _ _ _ Hok Hnm H G Hf) as Hg.
  rewrite (Hn _ _ _ _ _ H) in H. exact (concl_of_local _ _ _ _ _ Hl (Hloc h) Hok H G Hg).
Qed.

Lemma pre_stable_of_local d : leaf_lossless d -> (forall h, local (d h)) -> norsv d -> psized d -> pre_stable d.
Proof.
  intros Hl Hloc Hn Hs h r l rsv r' Hok Hnm H G. pose proof (Hs _ _ _ _ _ Hok Hnm H) as Hg.
  rewrite (Hn _ _ _ _ _ H) in H. exact (concl_of_local _ _ _ _ _ Hl (Hloc h) Hok H G Hg).
Qed.

(* ---------------------------------------------------------------- no captured bytes *)
Ltac nors := intros h r l rsv r' H; cbv beta delta [dec_ftyp dec_free dec_empty dec_b4 dec_mime dec_data dec_mfhd dec_tfhd dec_tfdt dec_trun dec_trex dec_stts
  dec_stsc dec_stsz dec_tab dec_sdtp dec_ctts dec_elst dec_saiz dec_saio dec_sbgp dec_prft dec_frma dec_vmhd dec_fullonly
  dec_mfro dec_mehd dec_pssh dec_url dec_btrt dec_pasp dec_clap dec_schm dec_cslg dec_senc dec_emsg dec_kind dec_stsd dec_dref
  dec_subs] in H;
  nrun H; unfold pret in H; injection H; intros; subst; reflexivity.

Lemma norsv_ftyp : norsv dec_ftyp. Proof. nors. Qed.
Lemma norsv_free : norsv dec_free. Proof. nors. Qed.
Lemma norsv_empty : norsv dec_empty. Proof. nors. Qed.
Lemma norsv_b4 : norsv dec_b4. Proof. nors. Qed.
Lemma norsv_mime : norsv dec_mime. Proof. nors. Qed.
Lemma norsv_data : norsv dec_data. Proof. nors. Qed.
Lemma norsv_mfhd : norsv dec_mfhd. Proof. nors. Qed.
Lemma norsv_tfhd : norsv dec_tfhd. Proof. nors. Qed.
Lemma norsv_tfdt : norsv dec_tfdt. Proof. nors. Qed.
Lemma norsv_trun : norsv dec_trun. Proof. nors. Qed.
Lemma norsv_trex : norsv dec_trex. Proof. nors. Qed.
Lemma norsv_stts : norsv dec_stts. Proof. nors. Qed.
Lemma norsv_stsc : norsv dec_stsc. Proof. nors. Qed.
Lemma norsv_stsz : norsv dec_stsz. Proof. nors. Qed.
Lemma norsv_tab w : norsv (dec_tab w). Proof. nors. Qed.
Lemma norsv_sdtp : norsv dec_sdtp. Proof. nors. Qed.
Lemma norsv_ctts : norsv dec_ctts. Proof. nors. Qed.
Lemma norsv_elst : norsv dec_elst. Proof. nors. Qed.
Lemma norsv_saiz : norsv dec_saiz. Proof. nors. Qed.
Lemma norsv_saio : norsv dec_saio. Proof. nors. Qed.
Lemma norsv_sbgp : norsv dec_sbgp. Proof. nors. Qed.
Lemma norsv_prft : norsv dec_prft. Proof. nors. Qed.
Lemma norsv_frma : norsv dec_frma. Proof. nors. Qed.
Lemma norsv_vmhd : norsv dec_vmhd. Proof. nors. Qed.
Lemma norsv_fullonly : norsv dec_fullonly. Proof. nors. Qed.
Lemma norsv_mfro : norsv dec_mfro. Proof. nors. Qed.
Lemma norsv_mehd : norsv dec_mehd. Proof. nors. Qed.
Lemma norsv_pssh : norsv dec_pssh. Proof. nors. Qed.
Lemma norsv_url : norsv dec_url. Proof. nors. Qed.
Lemma norsv_btrt : norsv dec_btrt. Proof. nors. Qed.
Lemma norsv_pasp : norsv dec_pasp. Proof. nors. Qed.
Lemma norsv_clap : norsv dec_clap. Proof. nors. Qed.
Lemma norsv_schm : norsv dec_schm. Proof. nors. Qed.
Lemma norsv_cslg : norsv dec_cslg. Proof. nors. Qed.
Lemma norsv_senc : norsv dec_senc. Proof. nors. Qed.
Lemma norsv_emsg : norsv dec_emsg. Proof. nors. Qed.
Lemma norsv_kind : norsv dec_kind. Proof. nors. Qed.
Lemma norsv_stsd : norsv dec_stsd. Proof. nors. Qed.
Lemma norsv_dref : norsv dec_dref. Proof. nors. Qed.
Lemma norsv_subs : norsv dec_subs. Proof. nors. Qed.

(* ---------------------------------------------------------------- decoded leaves satisfy the size guard of C02 *)
Ltac pows := change (256 ^ N.of_nat 4) with 4294967296 in *; change (256 ^ N.of_nat 1) with 256 in *;
             change (256 ^ N.of_nat 2) with 65536 in *.
Ltac triv_sized := intros h r l rsv r' _ _ H; cbv beta delta [dec_mfhd dec_tfhd dec_tfdt dec_trex dec_stsc dec_sdtp dec_prft
  dec_vmhd dec_mfro dec_mehd dec_url dec_btrt dec_pasp dec_clap dec_cslg dec_emsg dec_kind dec_stsd dec_dref
  dec_mvhd dec_tkhd dec_sidx dec_mdhd dec_smhd dec_subs] in H;
  nrun H; unfold pret in H; injection H; intros; subst; reflexivity.

Lemma psized_mfhd : psized dec_mfhd. Proof. triv_sized. Qed.
Lemma psized_tfhd : psized dec_tfhd. Proof. triv_sized. Qed.
Lemma psized_tfdt : psized dec_tfdt. Proof. triv_sized. Qed.
Lemma psized_trex : psized dec_trex. Proof. triv_sized. Qed.
Lemma psized_stsc : psized dec_stsc. Proof. triv_sized. Qed.
Lemma psized_sdtp : psized dec_sdtp. Proof. triv_sized. Qed.
Lemma psized_prft : psized dec_prft. Proof. triv_sized. Qed.
Lemma psized_vmhd : psized dec_vmhd. Proof. triv_sized. Qed.
Lemma psized_mfro : psized dec_mfro. Proof. triv_sized. Qed.
Lemma psized_mehd : psized dec_mehd. Proof. triv_sized. Qed.
Lemma psized_url : psized dec_url. Proof. triv_sized. Qed.
Lemma psized_btrt : psized dec_btrt. Proof. triv_sized. Qed.
Lemma psized_pasp : psized dec_pasp. Proof. triv_sized. Qed.
Lemma psized_clap : psized dec_clap. Proof. triv_sized. Qed.
Lemma psized_cslg : psized dec_cslg. Proof. triv_sized. Qed.
Lemma psized_emsg : psized dec_emsg. Proof. triv_sized. Qed.
Lemma psized_kind : psized dec_kind. Proof. triv_sized. Qed.
Lemma psized_stsd : psized dec_stsd. Proof. triv_sized. Qed.
Lemma psized_dref : psized dec_dref. Proof. triv_sized. Qed.
Lemma psized_mvhd : psized dec_mvhd. Proof. triv_sized. Qed.
Lemma psized_tkhd : psized dec_tkhd. Proof. triv_sized. Qed.
Lemma psized_sidx : psized dec_sidx. Proof. triv_sized. Qed.
Lemma psized_mdhd : psized dec_mdhd. Proof. triv_sized. Qed.
Lemma psized_smhd : psized dec_smhd. Proof. triv_sized. Qed.
Lemma psized_subs : psized dec_subs. Proof. triv_sized. Qed.

Ltac rew_bools :=
  repeat match goal with
         | Hc : ?c = true |- context [?c] => rewrite Hc
         | Hc : ?c = false |- context [?c] => rewrite Hc
         end.
Ltac eq4 := apply N.eqb_eq; assumption.
Ltac cnt_lt := apply N.ltb_lt; pows; lia.

Lemma psized_ftyp : psized dec_ftyp.
Proof. intros h r l rsv r' Hok Hnm H. unfold dec_ftyp in H. run H. inj_pret H. cbn [leaf_size_guard]. eq4. Qed.
Lemma psized_free : psized dec_free.
Proof. intros h r l rsv r' Hok Hnm H. unfold dec_free in H. run H. inj_pret H. cbn [leaf_size_guard]. eq4. Qed.
Lemma psized_empty : psized dec_empty.
Proof. intros h r l rsv r' Hok Hnm H. unfold dec_empty in H. inj_pret H. cbn [leaf_size_guard]. eq4. Qed.
Lemma psized_data : psized dec_data.
Proof. intros h r l rsv r' Hok Hnm H. unfold dec_data in H. run H. inj_pret H. reflexivity. Qed.
Lemma psized_mime : psized dec_mime.
Proof. intros h r l rsv r' Hok Hnm H. unfold dec_mime in H. run H; inj_pret H; reflexivity. Qed.
Lemma psized_wvtt : psized dec_wvtt.
Proof.
  intros h r l rsv r' Hok Hnm H. unfold dec_wvtt in H.
  destruct (rdB 6 r) as [[r6 r1]| | |]; [destruct (rd 2 r1) as [[dri r2]| | |]|..];
    try (destruct (16 <? h_size h); [discriminate H|]); injection H as <- _ _; reflexivity.
Qed.
Lemma psized_b4 : psized dec_b4.
Proof. intros h r l rsv r' Hok Hnm H. unfold dec_b4 in H. run H. inj_pret H. cbn [leaf_size_guard]. eq4. Qed.
Lemma psized_frma : psized dec_frma.
Proof. intros h r l rsv r' Hok Hnm H. unfold dec_frma in H. run H. inj_pret H. cbn [leaf_size_guard]. eq4. Qed.
Lemma psized_fullonly : psized dec_fullonly.
Proof. intros h r l rsv r' Hok Hnm H. unfold dec_fullonly in H. run H. inj_pret H. cbn [leaf_size_guard]. eq4. Qed.
Lemma psized_schm : psized dec_schm.
Proof. intros h r l rsv r' Hok Hnm H. unfold dec_schm in H. run H.
  - apply pbind_ok in H. destruct H as (s & r1 & _ & H). inj_pret H. cbn [leaf_size_guard]. eq4.
  - inj_pret H. cbn [leaf_size_guard]. eq4.
Qed.
Lemma psized_hdlr : psized dec_hdlr.
Proof. intros h r l rsv r' Hok Hnm H. unfold dec_hdlr in H. run H; inj_pret H; reflexivity. Qed.   (* no guard since repo commit 3502d85 *)
Lemma psized_audio : psized dec_audio.
Proof. intros h r l rsv r' Hok Hnm H. unfold dec_audio in H. run H. inj_pret H. cbn [leaf_size_guard]. eq4. Qed.
Lemma psized_visual : psized dec_visual.
Proof.
  intros h r l rsv r' Hok Hnm H. unfold dec_visual in H. run H. inj_pret H. cbn [leaf_size_guard].
  apply andb_true_iff. split; [eq4|]. apply N.leb_le. apply N.ltb_ge in Hc. lia.
Qed.
Lemma psized_colr : psized dec_colr.
Proof. intros h r l rsv r' Hok Hnm H. unfold dec_colr in H. run H; inj_pret H; cbn [leaf_size_guard]; eq4. Qed.
Lemma psized_tenc : psized dec_tenc.
Proof. intros h r l rsv r' Hok Hnm H. unfold dec_tenc, rdB_if in H. run H; inj_pret H; cbn [leaf_size_guard]; eq4. Qed.

Lemma psized_trun : psized dec_trun.
Proof.
  intros h r l rsv r' Hok Hnm H. unfold dec_trun in H. do 2 step H. cbv zeta in H.
  destruct (negb _); [discriminate H|]. destruct (_ && _); [discriminate H|]. do 2 step_if H.
  tail_many H (item_tsample (vf_flags a)). inj_pret H. cbn [leaf_size_guard]. cnt_lt.
Qed.
Lemma psized_stts : psized dec_stts.
Proof.
  intros h r l rsv r' Hok Hnm H. unfold dec_stts in H. run H. tail_many H item_pair. inj_pret H.
  cbn [leaf_size_guard]. cnt_lt.
Qed.
Lemma psized_tab w : psized (dec_tab w).
Proof.
  intros h r l rsv r' Hok Hnm H. unfold dec_tab in H. run H. tail_many H (item_rd w). inj_pret H.
  cbn [leaf_size_guard]. apply andb_true_iff. split; [eq4|cnt_lt].
Qed.
Lemma psized_ctts : psized dec_ctts.
Proof.
  intros h r l rsv r' Hok Hnm H. unfold dec_ctts in H. run H. tail_many H item_pair. inj_pret H.
  cbn [leaf_size_guard]. replace (lenN (map snd es)) with (lenN es) by (unfold lenN; now rewrite map_length). cnt_lt.
Qed.
Lemma psized_elst : psized dec_elst.
Proof.
  intros h r l rsv r' Hok Hnm H. unfold dec_elst in H. run H.
  tail_many H (item_elst (if vf_version a =? 1 then 8%nat else 4%nat)). inj_pret H. cbn [leaf_size_guard]. cnt_lt.
Qed.
Lemma psized_sbgp : psized dec_sbgp.
Proof.
  intros h r l rsv r' Hok Hnm H. unfold dec_sbgp in H. run H;
    (tail_many H item_pair; inj_pret H; cbn [leaf_size_guard]; apply andb_true_iff; split; [eq4|cnt_lt]).
Qed.
Lemma psized_saio : psized dec_saio.
Proof.
  intros h r l rsv r' Hok Hnm H. unfold dec_saio, rdB_if in H. run H;
    (tail_many H (item_rd (if vf_version a =? 0 then 4%nat else 8%nat)); inj_pret H; cbn [leaf_size_guard];
     rew_bools; cbn [negb orb]; apply andb_true_iff; split; [first [reflexivity|eq4]|cnt_lt]).
Qed.
Lemma psized_tfra : psized dec_tfra.
Proof.
  intros h r l rsv r' Hok Hnm H. unfold dec_tfra in H. run H.
  tail_many H (item_tfra (tfra_w (vf_version a)) (tfra_n ((a1 / 16) mod 4)) (tfra_n ((a1 / 4) mod 4)) (tfra_n (a1 mod 4))).
  inj_pret H. cbn [leaf_size_guard]. cnt_lt.
Qed.
Lemma psized_stsz : psized dec_stsz.
Proof.
  intros h r l rsv r' Hok Hnm H. unfold dec_stsz in H. run H.
  - tail_many H (item_rd 4). inj_pret H. cbn [leaf_size_guard]. apply N.eqb_eq in Hc0. subst. cbn [N.ltb N.compare].
    apply N.eqb_refl.
  - inj_pret H. cbn [leaf_size_guard]. apply N.eqb_neq in Hc0. replace (0 <? a0) with true by (symmetry; apply N.ltb_lt; lia).
    reflexivity.
Qed.
Lemma psized_saiz : psized dec_saiz.
Proof.
  intros h r l rsv r' Hok Hnm H. unfold dec_saiz, rdB_if in H. run H.
  all: try (tail_many H (item_rd 1)); inj_pret H; cbn [leaf_size_guard]; rew_bools; cbn [negb orb andb];
    first [ reflexivity | eq4
          | apply N.leb_le; lia
          | apply andb_true_iff; split; [eq4|first [reflexivity|apply N.leb_le; lia]] ].
Qed.

(* ---------------------------------------------------------------- replaying a decoder on re-encoded bytes *)
Lemma many_replay {A} (p : parser A) : local p -> progress p ->
  forall f cnt bs l r, rd_many f cnt p bs = Ok (l, r) ->
  exists x, bs = x ++ r /\ forall r2, rd_many (S (length (x ++ r2))) cnt p (x ++ r2) = Ok (l, r2).
Proof.
  intros Hp Hg f cnt bs l r E. destruct (many_local p Hp _ _ _ _ _ E) as (x & -> & _ & Hx).
  pose proof (many_len p Hp Hg _ _ _ _ _ E) as Hlen. exists x. split; [reflexivity|].
  intros r2. apply Hx. rewrite !app_length in *. lia.
Qed.

(* The kinds with reserved bytes, in three steps.  decoded: the size guard of the decoded leaf, then the run of the
   decoder as equations on the input.  reencode: stable_concl by concl_of_replay, the body computed, the lengths
   compared field by field; what is left is the decoder on the new body.  replay: every read of an encoded field
   gives the field back (rd_enc, rdB_lit). *)
Ltac decoded dec psz :=
  intros h r l rsv r' Hok Hnm H G; pose proof (psz _ _ _ _ _ Hok Hnm H) as Hg; unfold dec in H; run H.

Ltac reencode :=
  eapply concl_of_replay; [cbn [body_leaf dflt_rsv chunk nth hd]; reflexivity | eassumption | lensolve | intros r2].

Ltac rp :=
  repeat (first [ rewrite rd_enc by (first [assumption | pows; lia])
                | rewrite rdB_lit by (first [assumption | reflexivity | pows; lia]) ]; cbv beta iota).

Ltac replay dec := unfold dec, pbind; rewrite ?vf_join_split by assumption; repeat rewrite <- app_assoc; rp.

(* ---------------------------------------------------------------- sgpd *)
Lemma many_forall_ok {A} (p : parser A) (P : A -> Prop) :
  (forall bs a r, bytes_ok bs = true -> p bs = Ok (a, r) -> bytes_ok r = true /\ P a) ->
  forall f cnt bs l r, bytes_ok bs = true -> rd_many f cnt p bs = Ok (l, r) -> Forall P l.
Proof.
  intros Hp f cnt bs l r Hok H. revert Hok.
  apply (rd_many_ind _ _ _ _ _ _ H (fun _ bs l _ => bytes_ok bs = true -> Forall P l)); [constructor|]. clear - Hp.
  intros cnt bs a r1 l r _ E IH Hok. destruct (Hp _ _ _ Hok E) as [Hok1 Ha]. constructor; auto.
Qed.

Lemma sgpd_facts h r l rsv r' : bytes_ok r = true -> dec_sgpd h r = Ok ((l, rsv), r') -> leaf_size_guard l = true.
Proof.
  intros Hok H. unfold dec_sgpd in H. do 2 step H. do 2 step_if H. step H.
  apply pbind_ok in H. destruct H as (its & r6 & E & H). inj_pret H. rename a1 into dlen.
  pose proof (many_forall_ok _ (fun it => lenN (wr_sge (snd (fst it)) 0) = fst (fst it) /\
      (negb (dlen =? 0) = true -> fst (fst it) = dlen) /\ ((1 <=? vf_version a) = false -> dlen <> 0))
    (fun bs it r Hb Hp => let '(conj _ (conj p2 (conj p3 (conj _ (conj p5 p6))))) := item_sgpd _ _ _ bs it r Hb Hp in conj p2 (conj p3 (conj p5 p6)))
    _ _ _ _ _ Hok0 E) as HF.
  cbn [leaf_size_guard]. repeat (apply andb_true_iff; split).
  + apply N.eqb_eq. assumption.
  + apply forallb_forall. intros it Hin. apply in_map_iff in Hin. destruct Hin as (x & <- & Hxin).
    apply N.eqb_eq. exact (proj1 (proj1 (Forall_forall _ _) HF x Hxin)).
  + destruct (dlen =? 0) eqn:Ez; [reflexivity|]. cbn [orb]. apply forallb_forall. intros it Hin.
    apply in_map_iff in Hin. destruct Hin as (x & <- & Hxin). apply N.eqb_eq.
    exact (proj1 (proj2 (proj1 (Forall_forall _ _) HF x Hxin)) eq_refl).
  + destruct (1 <=? vf_version a) eqn:Ev; [reflexivity|]. cbn [orb]. apply N.eqb_eq.
    destruct its as [|x t]; [reflexivity|]. exfalso. inversion HF as [|? ? Hx0 _]; subst.
    exact (proj2 (proj2 Hx0) eq_refl (Hz eq_refl)).
Qed.

(* the reserved byte of the seig entries is captured; the encoder writes 0 and the decoder applied to that reads the same
   entries (sgpd_item_zero, many_zero): no guard *)
Lemma zero_items_combine (its : list ((N * sge) * N)) :
  combine (map fst its) (map (fun _ : N * sge => 0) (map fst its)) = map (fun it => (fst it, 0)) its.
Proof. induction its as [|[a b] t IH]; [reflexivity|]. cbn [map combine fst]. now rewrite IH. Qed.

Lemma lenN_items_rb dlen (items : list (N * sge)) : forall rs rs' : list N, length rs = length items -> length rs' = length items ->
  lenN (flat_map (wr_sgpd_item dlen) (combine items rs)) = lenN (flat_map (wr_sgpd_item dlen) (combine items rs')).
Proof.
  induction items as [|it t IH]; intros rs rs' H1 H2; [reflexivity|].
  destruct rs as [|a rs]; [discriminate|]. destruct rs' as [|a' rs']; [discriminate|]. cbn [combine flat_map].
  rewrite !lenN_app. f_equal; [|apply IH; cbn in *; lia].
  unfold wr_sgpd_item. cbn [fst snd]. rewrite !lenN_app. f_equal. now rewrite (lenN_wr_sge_rb _ a), (lenN_wr_sge_rb _ a').
Qed.

Lemma flat_map_len_ge {A} (wr : A -> list N) (z : A -> A) l : Forall (fun a => wr (z a) <> []) l ->
  (length l <= length (flat_map wr (map z l)))%nat.
Proof.
  induction 1 as [|a t Ha _ IH]; [cbn; lia|]. cbn [map flat_map length]. rewrite app_length.
  destruct (wr (z a)) as [|c w]; [contradiction|]. cbn [length]. lia.
Qed.

Lemma sgpd_item_nonempty v dlen gt bs it r : bytes_ok bs = true -> rd_sgpd_item v dlen gt bs = Ok (it, r) ->
  bytes_ok r = true /\ wr_sgpd_item dlen (fst it, 0) <> [].
Proof.
  intros Hok H. destruct (item_sgpd _ _ _ _ _ _ Hok H) as (_ & Hokr & Hl & Hne & _). split; [assumption|].
  unfold wr_sgpd_item. cbn [fst snd]. intros Hw. apply app_eq_nil in Hw. destruct Hw as [_ Hw]. rewrite Hw in Hl.
  change (lenN (@nil N)) with 0 in Hl. congruence.
Qed.

Lemma stable_sgpd : leaf_stable dec_sgpd.
Proof.
  intros h r l rsv r' Hok Hnm H G Hf _.
  pose proof (sgpd_facts _ _ _ _ _ Hok H) as Hsg.
  unfold dec_sgpd in H. do 2 step H. do 2 step_if H. step H.
  apply pbind_ok in H. destruct H as (its & r6 & E & H). inj_pret H. rename a1 into dlen.
  destruct (rd_many_spec _ _ (item_sgpd_bytes _ _ _) _ _ _ _ _ Hok0 E) as (Hr0 & Hl & _).
  pose proof (many_forall_ok _ (fun it : (N * sge) * N => wr_sgpd_item dlen (fst it, 0) <> [])
                (sgpd_item_nonempty (vf_version a) dlen a0) _ _ _ _ _ Hok0 E) as Hne.
  pose proof (flat_map_len_ge (wr_sgpd_item dlen) (fun it => (fst it, 0)) its Hne) as Hge.
  assert (Hcnt : lenN (map fst its) = a3) by (unfold lenN; rewrite map_length; exact Hl).
  eapply concl_of_replay; [cbn [body_leaf dflt_rsv chunk nth]; reflexivity|exact Hsg| |intros r2].
  { rewrite Hr0. lens. rewrite (lenN_items_rb dlen (map fst its) _ (map snd its)), combine_fst_snd by now rewrite !map_length. lia. }
  unfold dec_sgpd, pbind. rewrite zero_items_combine, vf_join_split by assumption. repeat rewrite <- app_assoc.
  rewrite rd_enc by assumption. cbv beta iota zeta. rewrite (rdB_lit a0 4) by assumption. cbv beta iota.
  rewrite !rd_if_enc by assumption. cbv beta iota. rewrite Hcnt, rd_enc by assumption. cbv beta iota.
  rewrite (many_zero _ (wr_sgpd_item dlen) (fun it => (fst it, 0)) (sgpd_item_zero _ dlen a0) _ _ _ _ _ Hok0 E)
    by (rewrite app_length; lia).
  rewrite !map_map. cbn [fst snd dflt_rsv]. rewrite ?map_map. reflexivity.
Qed.

Lemma pstable_mvhd : pre_stable dec_mvhd.
Proof. decoded dec_mvhd psized_mvhd. inj_pret H. reencode. replay dec_mvhd. reflexivity. Qed.

Lemma pstable_tkhd : pre_stable dec_tkhd.
Proof. decoded dec_tkhd psized_tkhd. inj_pret H. reencode. replay dec_tkhd. reflexivity. Qed.

Lemma pstable_mdhd : pre_stable dec_mdhd.
Proof. decoded dec_mdhd psized_mdhd. inj_pret H. reencode. replay dec_mdhd. rewrite Hc. rp. reflexivity. Qed.

Lemma pstable_smhd : pre_stable dec_smhd.
Proof. decoded dec_smhd psized_smhd. inj_pret H. reencode. replay dec_smhd. reflexivity. Qed.

Lemma pstable_audio : pre_stable dec_audio.
Proof. decoded dec_audio psized_audio. inj_pret H. reencode. replay dec_audio. reflexivity. Qed.

Lemma pstable_visual : pre_stable dec_visual.
Proof.
  decoded dec_visual psized_visual. inj_pret H.
  assert (Hpad : vis_pad (lenN a9) = 31 - lenN a9).
  { apply N.ltb_ge in Hc. unfold vis_pad, u8. rewrite (N.mod_small (lenN a9)) by lia.
    rewrite <- (N.mod_unique (31 + 256 - lenN a9) 256 1 (31 - lenN a9)); lia. }
  eapply concl_of_replay; [cbn [body_leaf dflt_rsv chunk nth]; reflexivity|exact Hg|lens; rewrite N2Nat.id, Hpad; lia|intros r2].
  replay dec_visual. rewrite Hc. rp.
  rewrite (rdB_lit (zeros (N.to_nat (vis_pad (lenN a9))))) by (rewrite lenN_zeros, N2Nat.id; exact Hpad). cbv beta iota.
  change ([0; 24] ++ [255; 255] ++ r2) with ([0; 24] ++ ([255; 255] ++ r2)).
  rewrite (rdB_lit [0; 24]) by reflexivity. cbv beta iota. rewrite (rdB_lit [255; 255]) by reflexivity. reflexivity.
Qed.

Lemma pstable_hdlr : pre_stable dec_hdlr.
Proof.
  decoded dec_hdlr psized_hdlr; inj_pret H.
  - apply N.eqb_eq in Hc0.
    assert (Hne : a3 <> []) by (intros ->; cbn in Hlen1; apply N.ltb_lt in Hc; lia).
    pose proof (last_removelast a3 Hne) as Ha3. rewrite Hc0 in Ha3.
    set (nm := removelast a3) in *. clearbody nm. subst a3.
    reencode. replay dec_hdlr.
    rewrite Hc. change (nm ++ [0] ++ r2) with (nm ++ ([0] ++ r2)). rewrite (app_assoc nm [0] r2).
    rp. rewrite last_last, N.eqb_refl, removelast_last. reflexivity.
  - reencode. replay dec_hdlr. rewrite Hc. cbn [app]. rp. rewrite Hc0. reflexivity.
  - reencode. replay dec_hdlr. rewrite Hc. reflexivity.
Qed.

Lemma pstable_sidx : pre_stable dec_sidx.
Proof.
  decoded dec_sidx psized_sidx.
  apply pbind_ok in H. destruct H as (es & r1 & E & H). inj_pret H.
  destruct (many_replay _ local_sref progress_sref _ _ _ _ _ E) as (x & Hxx & Hrep).
  many E item_sref. apply app_inv_tail in Hxx. subst x.
  reencode. replay dec_sidx. rewrite Hl. rp. rewrite Hrep. reflexivity.
Qed.

(* the three length sizes packed into the low six bits of the sizes word, and read back *)
Lemma tfra_sizes_split lt lr ls : lt < 4 -> lr < 4 -> ls < 4 ->
  let s := lt * 16 + lr * 4 + ls in
  u8 s = s /\ (s / 16) mod 4 = lt /\ (s / 4) mod 4 = lr /\ s mod 4 = ls /\ s / 64 = 0 /\ s < 64.
Proof. intros H1 H2 H3 s. subst s. unfold u8. repeat split; lia. Qed.

Lemma pstable_tfra : pre_stable dec_tfra.
Proof.
  decoded dec_tfra psized_tfra.
  apply pbind_ok in H. destruct H as (es & r1 & E & H). inj_pret H.
  destruct (many_replay _ (local_tfra _ _ _ _) (progress_tfra _ _ _ _) _ _ _ _ _ E) as (x & Hxx & Hrep).
  many E (item_tfra (tfra_w (vf_version a)) (tfra_n ((a1 / 16) mod 4)) (tfra_n ((a1 / 4) mod 4)) (tfra_n (a1 mod 4))).
  apply app_inv_tail in Hxx. subst x.
  destruct (tfra_sizes_split ((a1 / 16) mod 4) ((a1 / 4) mod 4) (a1 mod 4)) as (H0 & H1 & H2 & H3 & H4 & H5);
    [apply N.mod_lt; discriminate..|].
  set (lt := (a1 / 16) mod 4) in *. set (lr := (a1 / 4) mod 4) in *. set (ls := a1 mod 4) in *. clearbody lt lr ls.
  reencode. unfold dec_tfra, pbind. rewrite vf_join_split by assumption.
  change (0 * 64 + u8 (lt * 16 + lr * 4 + ls)) with (u8 (lt * 16 + lr * 4 + ls)). rewrite H0.
  repeat rewrite <- app_assoc. rp.
  rewrite H1, H2, H3, H4, Hl, Hc. rp. rewrite Hrep. reflexivity.
Qed.

Lemma pstable_colr : pre_stable dec_colr.
Proof.
  decoded dec_colr psized_colr; inj_pret H.
  - eapply concl_of_replay; [cbn [body_leaf dflt_rsv chunk nth hd]; rewrite Hc; reflexivity|exact Hg|lensolve|intros r2].
    replay dec_colr. rewrite Hc. rp.
    rewrite rd_enc by (destruct (128 <=? a3); pows; lia). cbv beta iota.
    destruct (128 <=? a3); reflexivity.
  - eapply concl_of_replay; [cbn [body_leaf dflt_rsv chunk nth hd]; rewrite Hc, Hc0; reflexivity|exact Hg|lensolve|intros r2].
    replay dec_colr. rewrite Hc, Hc0. rp. reflexivity.
  - eapply concl_of_replay; [cbn [body_leaf dflt_rsv chunk nth hd]; rewrite Hc, Hc0; reflexivity|exact Hg|lensolve|intros r2].
    replay dec_colr. rewrite Hc, Hc0, Hc1. rp. reflexivity.
Qed.

Lemma pstable_tenc : pre_stable dec_tenc.
Proof.
  intros h r l rsv r' Hok Hnm H G. pose proof (psized_tenc _ _ _ _ _ Hok Hnm H) as Hg.
  unfold dec_tenc, rdB_if in H. run H; inj_pret H; cbn [negb] in *; try congruence.
  all: eapply concl_of_replay;
    [cbn [body_leaf dflt_rsv chunk nth]; rewrite ?Hc; cbn [chunk nth]; rew_conds; reflexivity|exact Hg|lensolve|intros r2].
  all: unfold dec_tenc, rdB_if, rd_if, pbind; rewrite vf_join_split by assumption; repeat rewrite <- app_assoc; rp;
    rewrite ?Hc; cbn [negb]; rewrite ?join_nibbles by assumption;
    repeat (progress (rp; rew_bools; unfold pret; cbv beta iota)); cbn [dflt_rsv app]; rewrite ?Hc; reflexivity.
Qed.

(* ---------------------------------------------------------------- pssh, senc: size guard *)
Lemma many_forall {A} (p : parser A) (P : A -> Prop) : (forall bs a r, p bs = Ok (a, r) -> P a) ->
  forall f cnt bs l r, rd_many f cnt p bs = Ok (l, r) -> Forall P l.
Proof.
  intros Hp f cnt bs l r H. apply (rd_many_ind _ _ _ _ _ _ H (fun _ _ l _ => Forall P l)); [constructor|].
  intros ? ? a ? ? ? _ E IH. constructor; [exact (Hp _ _ _ E)|exact IH].
Qed.

Lemma rdB_len n bs a r : rdB n bs = Ok (a, r) -> lenN a = n.
Proof.
  unfold rdB. destruct (lenN bs <? n); [discriminate|].
  destruct (take (N.to_nat n) bs) as [[x r0]|] eqn:E; [|discriminate]. intros H. injection H as <- <-.
  destruct (take_spec _ _ _ _ E) as [_ Hl]. unfold lenN. lia.
Qed.

Lemma psized_pssh : psized dec_pssh.
Proof.
  intros h r l rsv r' Hok Hnm H. unfold dec_pssh in H. run H;
  (apply pbind_ok in H; destruct H as (kids & r9 & E & H); cbv beta zeta in H;
   pose proof (many_forall _ (fun k => lenN k = 16) (rdB_len 16) _ _ _ _ _ E) as Hk;
   nrun H; unfold pret in H; injection H; intros; subst; cbn [leaf_size_guard];
   apply andb_true_iff; split; [eq4|]; apply forallb_forall; intros k Hin;
   apply N.eqb_eq; exact (proj1 (Forall_forall _ _) Hk k Hin)).
Qed.

Lemma sized_senc : sized dec_senc.
Proof.
  intros h r l rsv r' Hok Hnm H G (Hsz & Hlen & _). unfold dec_senc in H. run H. inj_pret H.
  cbn [leaf_size_guard leaf_guard size_leaf leaf_large] in *. apply N.eqb_eq.
  apply N.ltb_ge in Hc, Hc1. unfold payload_len in *.
  destruct ((a0 =? 0) || (lenN a1 =? 0)) eqn:E; cbn [negb] in *.
  - destruct (senc_keeps false a0 (h_size h - h_len h + 8)) eqn:K; cbn [orb] in G.
    + lia.
    + apply N.eqb_eq in G. lia.
  - unfold senc_keeps. cbn [orb]. lia.
Qed.

(* ---------------------------------------------------------------- mdat *)
Lemma stable_mdat : leaf_stable dec_mdat.
Proof.
  intros h r l rsv r' Hok Hnm H G (Hsz & Hlen & Hmax) _. unfold dec_mdat in H.
  destruct (rdB (payload_len h) r) as [[data r1]| | |] eqn:E; injection H as <- <- <-; cbn [size_leaf leaf_large] in *; cbv zeta in *.
  1: { destruct (rdB_spec _ _ _ _ Hok E) as (-> & Hl & _ & _). unfold payload_len in Hl.
       apply concl_of_replay with (b := data); 
         [reflexivity|apply N.ltb_lt; destruct ((8 <? h_len h) || (4294967287 <? lenN data)) eqn:El; lia|now rewrite lenN_app|].
       intros r2. unfold dec_mdat. rewrite rdB_lit by exact Hl. reflexivity. }
  (* a failed read leaves an empty mdat, whose header, if it fits, announces no payload: that read does not fail *)
  all: exfalso; assert (Hp : payload_len h = 0)
         by (unfold payload_len; change (lenN (@nil N)) with 0 in *; destruct ((8 <? h_len h) || (4294967287 <? 0)); lia);
       rewrite Hp in E; pose proof (rdB_lit [] 0 r eq_refl) as E0; cbn [app] in E0; congruence.
Qed.

(* ---------------------------------------------------------------- elng *)
Lemma ztf_some_local bs : forall n s r, ztf bs n = (Some s, r) ->
  bs = (s ++ [0]) ++ r /\ forall r2, ztf ((s ++ [0]) ++ r2) n = (Some s, r2).
Proof.
  induction bs as [|c t IH]; intros n s r H; cbn [ztf] in H.
  - destruct (n =? 0); discriminate.
  - destruct (n =? 0) eqn:En; [discriminate|]. destruct (c =? 0) eqn:E0.
    + injection H as <- <-. apply N.eqb_eq in E0. subst c. split; [reflexivity|].
      intros r2. cbn [app ztf]. now rewrite En.
    + destruct (ztf t (n - 1)) as [[s'|] r0] eqn:E; [|discriminate]. injection H as <- <-.
      destruct (IH _ _ _ E) as (-> & Hx). split; [reflexivity|].
      intros r2. cbn [app ztf]. rewrite En, E0. cbn [app] in Hx. now rewrite Hx.
Qed.

Lemma local_elng_full h : local (pdo vf <- rd 4 ;; if negb (vf =? 0) then pfail else
                                 pdo s <- rd_zt (payload_len h - 4) ;; pret (LElng false 0 0 s, [s ++ [0]])).
Proof. loc. Qed.

Lemma stable_elng : leaf_stable dec_elng.
Proof.
  intros h r l rsv r' Hok Hnm H G (Hsz & Hlen & Hmax) Hroom.
  pose proof (lossless_elng _ _ _ _ _ Hok H G) as (b & Hb & Hr & _).
  unfold dec_elng in H. destruct (payload_len h <? 7) eqn:E7.
  - destruct (ztf r (payload_len h)) as [[s|] r0] eqn:E; injection H as <- <- <-.
    + destruct (ztf_some_local _ _ _ _ E) as (Hrr & Hrep).
      cbn [body_leaf dflt_rsv chunk nth app] in *. injection Hb as <-.
      exists (s ++ [0]). split; [reflexivity|]. split; [rewrite Hrr; rewrite !lenN_app; lia|].
      split; [apply body_size; reflexivity|].
      intros r2. unfold dec_elng. rewrite E7, Hrep. reflexivity.
    + cbn [size_leaf leaf_large leaf_name] in *. change (lenN (@nil N)) with 0 in *.
      assert (Hpl : payload_len h = 1) by (unfold payload_len; lia).
      assert (Hr1 : 1 <= lenN r) by (specialize (Hroom ltac:(discriminate)); lia).
      rewrite Hpl in E. destruct r as [|c t]; [cbn in Hr1; lia|].
      cbn [ztf N.eqb] in E. destruct (c =? 0); [discriminate|]. destruct t; cbn [ztf N.sub Pos.pred_N N.eqb] in E; injection E as <-.
      * exists [0]. split; [reflexivity|]. split; [reflexivity|]. split; [reflexivity|].
        intros r2. unfold dec_elng. rewrite E7, Hpl. reflexivity.
      * exists [0]. split; [reflexivity|]. split; [rewrite !lenN_cons; change (lenN (@nil N)) with 0; lia|]. split; [reflexivity|].
        intros r2. unfold dec_elng. rewrite E7, Hpl. reflexivity.
  - destruct (local_elng_full h _ _ _ H) as (x & Hx & Hrep).
    assert (Hd : rsv = dflt_rsv l).
    { nrun H. unfold pret in H. injection H; intros; subst. reflexivity. }
    subst rsv. rewrite Hr in Hx. apply app_inv_tail in Hx. subst x.
    assert (Hg : leaf_size_guard l = true).
    { nrun H. unfold pret in H. injection H; intros; subst. reflexivity. }
    exists b. split; [exact Hb|]. split; [rewrite Hr; rewrite !lenN_app; lia|]. split; [now apply body_size|].
    intros r2. unfold dec_elng. rewrite E7. apply Hrep.
Qed.

(* ---------------------------------------------------------------- avcC *)
Lemma many_const_replay {A} (p : parser A) (e : A -> list N) :
  local p -> (forall bs a r, bytes_ok bs = true -> p bs = Ok (a, r) -> bs = e a ++ r /\ bytes_ok r = true) ->
  forall f cnt bs l r, bytes_ok bs = true -> rd_many f cnt p bs = Ok (l, r) ->
    bs = flat_map e l ++ r /\ lenN l = cnt /\ bytes_ok r = true /\ (length l <= f)%nat /\
    forall r2, rd_many f cnt p (flat_map e l ++ r2) = Ok (l, r2).
Proof.
  intros Hp He f cnt bs l r Hok E.
  destruct (rd_many_spec p e He _ _ _ _ _ Hok E) as (Hbs & Hl & Hr).
  destruct (many_local p Hp _ _ _ _ _ E) as (x & Hx & _ & Hrep).
  pose proof (many_fuel_len p _ _ _ _ _ E) as Hf.
  rewrite Hbs in Hx. apply app_inv_tail in Hx. subst x.
  repeat split; try assumption. intros r2. now apply Hrep.
Qed.

Lemma nonempty_match {T} (bs : list N) (X Y : T) : bs <> [] -> match bs with [] => X | _ :: _ => Y end = Y.
Proof. destruct bs; [congruence|reflexivity]. Qed.
Lemma be_enc1_app_nonempty v rest : be_enc 1 v ++ rest <> [].
Proof. intros H. apply (f_equal (@length N)) in H. rewrite app_length, length_be_enc in H. discriminate. Qed.

(* the shared head of the three replays below: version, profile bytes, the two length bytes with the encoder's
   reserved bits (Hb4, Hb5), the SPS list *)
Ltac avc_pre Hb4 Hb5 Hrep1 :=
  unfold avcc_rec, pbind; rewrite Hb4, Hb5; repeat rewrite <- app_assoc;
  rewrite rd_enc by (pows; lia); change (negb (1 =? 1)) with false; cbv beta iota;
  repeat (rewrite rd_enc by (first [assumption | pows; lia]); cbv beta iota);
  change (255 mod 4 =? 3) with true; cbn [negb]; cbv beta iota;
  repeat (rewrite rd_enc by (first [assumption | pows; lia]); cbv beta iota);
  rewrite mod_over, div_over by assumption;
  rewrite Hrep1; cbv beta iota;
  repeat (rewrite rd_enc by (first [assumption | pows; lia]); cbv beta iota).

Lemma avcc_rec_stable data l rsv extra : bytes_ok data = true -> avcc_rec data = Ok ((l, rsv), extra) ->
  exists b', body_leaf l (dflt_rsv l) = Ok b' /\ lenN b' + lenN extra = lenN data /\
             avcc_rec b' = Ok ((l, [[63]; [7]; [63]; [31]; [31]]), []).
Proof.
  intros Hok H. unfold avcc_rec in H. run H.
  apply pbind_ok in H. destruct H as (sps & r1 & E1 & H).
  match type of E1 with rd_many _ _ _ ?x = _ => match goal with Hk : bytes_ok x = true |- _ =>
    destruct (many_const_replay _ _ local_nalu item_nalu _ _ _ _ _ Hk E1) as (-> & Hl1 & Hk1 & Hf1 & Hrep1) end end.
  step H.
  apply pbind_ok in H. destruct H as (pps & r2 & E2 & H).
  match type of E2 with rd_many _ _ _ ?x = _ => match goal with Hk : bytes_ok x = true |- _ =>
    destruct (many_const_replay _ _ local_nalu item_nalu _ _ _ _ _ Hk E2) as (-> & Hl2 & Hk2 & Hf2 & Hrep2) end end.
  apply negb_false_iff, N.eqb_eq in Hc, Hc0. subst. pows.
  assert (Hs32 : lenN sps < 32) by (rewrite Hl1; apply N.mod_lt; discriminate).
  rewrite <- Hl1 in Hrep1.
  assert (Hb5 : N.lor (u8 (lenN sps)) (7 * 32) = 7 * 32 + lenN sps).
  { unfold u8. rewrite N.mod_small, N.lor_comm by lia. now apply (lor_over 32 5). }
  assert (Hb4 : N.lor 3 (63 * 4) = 255) by reflexivity.
  assert (Hrep2' : rd_many 256 (lenN pps) rd_nalu (flat_map wr_nalu pps) = Ok (pps, [])).
  { rewrite <- (app_nil_r (flat_map wr_nalu pps)) at 1. apply Hrep2. }
  destruct (avc_plain a0) eqn:Ep.
  - inj_pret H. eexists. split; [cbn [body_leaf dflt_rsv chunk nth hd]; rewrite Ep; cbn [orb]; reflexivity|].
    split; [lensolve|].
    avc_pre Hb4 Hb5 Hrep1. rewrite app_nil_r, Hrep2'. cbv beta iota. rewrite Ep. reflexivity.
  - destruct r2 as [|x r2].
    + apply Ok_inj in H. injection H as <- <- <-.
      eexists. split; [cbn [body_leaf dflt_rsv chunk nth hd]; rewrite Ep; cbn [orb]; reflexivity|].
      split; [lensolve|].
      avc_pre Hb4 Hb5 Hrep1. rewrite app_nil_r, Hrep2'. cbv beta iota. rewrite Ep. reflexivity.
    + run H. inj_pret H. apply negb_false_iff, N.eqb_eq in Hc. subst.
      eexists. split; [cbn [body_leaf dflt_rsv chunk nth hd]; rewrite Ep; cbn [orb]; reflexivity|].
      split; [lensolve|].
      rewrite (lor_over 4 2), !(lor_over 8 3) by first [reflexivity | apply N.mod_lt; discriminate].
      avc_pre Hb4 Hb5 Hrep1. rewrite Hrep2. cbv beta iota. rewrite Ep.
      rewrite nonempty_match by apply be_enc1_app_nonempty.
      repeat (rewrite rd_enc by (first [assumption | pows; lia]); cbv beta iota).
      change (negb (0 =? 0)) with false. cbv beta iota. unfold pret.
      rewrite !mod_over, !div_over by (apply N.mod_lt; discriminate). reflexivity.
Qed.

Lemma avcc_shape data l rsv extra : avcc_rec data = Ok ((l, rsv), extra) ->
  leaf_size_guard l = true /\ dflt_rsv l = [[63]; [7]; [63]; [31]; [31]; []].
Proof.
  intros E. unfold avcc_rec in E. nrun E.
  - unfold pret in E. injection E as <- _ _. split; reflexivity.
  - cbv beta in E. match type of E with (match ?x with _ => _ end) = _ => destruct x end;
      [injection E as <- _ _; split; reflexivity|]. nrun E. unfold pret in E. injection E as <- _ _. split; reflexivity.
Qed.

(* a record decoder (dec_rec) is stable when the record parser reads the encoder's body back, with nothing left over *)
Lemma stable_rec rec d5 :
  (forall data l rsv extra, bytes_ok data = true -> rec data = Ok ((l, rsv), extra) ->
     exists b', body_leaf l (dflt_rsv l) = Ok b' /\ lenN b' + lenN extra = lenN data /\ rec b' = Ok ((l, d5), [])) ->
  (forall data l rsv extra, rec data = Ok ((l, rsv), extra) -> leaf_size_guard l = true /\ dflt_rsv l = d5 ++ [[]]) ->
  leaf_stable (dec_rec rec).
Proof.
  intros Hrec Hshape h r l rsv r' Hok Hnm H G (Hsz & Hlen & Hmax) _.
  destruct (dec_rec_inv _ _ _ _ _ _ H) as (data & rsv0 & extra & E & Er & ->).
  destruct (rdB_spec _ _ _ _ Hok E) as (-> & Hld & Hd & _).
  destruct (Hrec _ _ _ _ Hd Er) as (b' & Hb' & Hlens & Hb'rec). destruct (Hshape _ _ _ _ Er) as [Hg Hdf].
  pose proof (body_size _ _ Hb' Hg) as Hbs. unfold payload_len in Hld.
  apply (concl_of_replay _ _ _ _ _ b' Hb' Hg); [rewrite lenN_app; lia|].
  intros r2. unfold dec_rec, pbind. rewrite rdB_lit by (unfold payload_len; lia). now rewrite Hb'rec, Hdf.
Qed.

Lemma stable_avcC : leaf_stable dec_avcC.
Proof. exact (stable_rec avcc_rec _ avcc_rec_stable avcc_shape). Qed.

(* ---------------------------------------------------------------- hvcC *)
Lemma hvcc_rec_stable data l rsv extra : bytes_ok data = true -> hvcc_rec data = Ok ((l, rsv), extra) ->
  exists b', body_leaf l (dflt_rsv l) = Ok b' /\ lenN b' + lenN extra = lenN data /\
             hvcc_rec b' = Ok ((l, [[15]; [63]; [63]; [31]; [31]]), []).
Proof.
  intros Hok H. unfold hvcc_rec in H. run H.
  apply pbind_ok in H. destruct H as (arrs & r1 & E1 & H).
  match type of E1 with rd_many _ _ _ ?x = _ => match goal with Hk : bytes_ok x = true |- _ =>
    destruct (many_const_replay _ _ local_narr item_narr _ _ _ _ _ Hk E1) as (-> & Hl1 & Hk1 & Hf1 & Hrep1) end end.
  inj_pret H. apply negb_false_iff, N.eqb_eq in Hc, Hc0. subst. pows.
  eexists. split; [cbn [body_leaf dflt_rsv chunk nth hd]; reflexivity|].
  (* the two bytes without reserved bits are the bytes read; the five with reserved bits carry the encoder's *)
  rewrite hvcc_byte1, hvcc_byte2 by assumption.
  split; [lensolve|].
  rewrite (lor_over 4096 12), !(lor_over 4 2), !(lor_over 8 3) by first [reflexivity | apply N.mod_lt; discriminate].
  unfold hvcc_rec, pbind. repeat rewrite <- app_assoc.
  rewrite rd_enc by lia. change (negb (1 =? 1)) with false. cbv beta iota.
  repeat (rewrite rd_enc by (first [assumption | pows; lia]); cbv beta iota).
  rewrite Hc0. change (negb (3 =? 3)) with false. cbv beta iota.
  repeat (rewrite rd_enc by (first [assumption | pows; lia]); cbv beta iota).
  rewrite app_nil_r. rewrite <- (app_nil_r (flat_map wr_narr arrs)) at 1. rewrite Hrep1. cbv beta iota. unfold pret.
  rewrite !mod_over, !div_over by (apply N.mod_lt; discriminate). reflexivity.
Qed.

Lemma hvcc_shape data l rsv extra : hvcc_rec data = Ok ((l, rsv), extra) ->
  leaf_size_guard l = true /\ dflt_rsv l = [[15]; [63]; [63]; [31]; [31]; []].
Proof.
  intros E. unfold hvcc_rec in E. nrun E. unfold pret in E. injection E as <- _ _. split; reflexivity.
Qed.

Lemma stable_hvcC : leaf_stable dec_hvcC.
Proof. exact (stable_rec hvcc_rec _ hvcc_rec_stable hvcc_shape). Qed.

(* ---------------------------------------------------------------- esds *)
(* under the guard (size fields in the encoder's form, no UnknownData) the captured size fields ARE the encoder's,
   so the re-encoding is the input; the decoder reads the payload of the box only (repo commit 27ea537), and the header
   that fits the leaf announces exactly the re-encoded body (esds_core) *)
Lemma stable_esds : leaf_stable dec_esds.
Proof.
  intros h r l rsv r' Hok Hnm H G Hf _.
  destruct (esds_core _ _ _ _ _ Hok H) as (Hok' & Hname & b & Hb & Hr & Hg). destruct (Hg G) as [Hd Hrep].
  pose proof (esds_is _ _ _ _ _ H) as Hl.
  assert (Hsg : leaf_size_guard l = true) by (destruct l; try contradiction; reflexivity).
  subst rsv. exists b. split; [exact Hb|]. split; [rewrite Hr; rewrite lenN_app; reflexivity|].
  pose proof (body_size _ _ Hb Hsg) as Hbs. split; [exact Hbs|].
  intros r2. apply Hrep. destruct Hf as (Hsz & Hlen & _). unfold payload_len. lia.
Qed.

(* ---------------------------------------------------------------- uuid *)
Lemma norsv_uuid : norsv dec_uuid.
Proof.
  intros h r l rsv r' H. unfold dec_uuid in H. apply pbind_ok in H. destruct H as (u & r0 & _ & H).
  destruct (bytes_eqb u uuid_tfxd); [nrun H; unfold pret in H; injection H; intros; subst; reflexivity|].
  destruct (bytes_eqb u uuid_tfrf); [nrun H; unfold pret in H; injection H; intros; subst; reflexivity|].
  destruct (bytes_eqb u uuid_piff).
  - destruct (h_size h <? 16); [discriminate H|]. apply pbind_ok in H. destruct H as ([l0 rsv0] & r1 & _ & H). cbn [fst] in H.
    destruct l0; try discriminate H. unfold pret in H. injection H; intros; subst. reflexivity.
  - destruct (h_size h <? 24); [discriminate H|]. nrun H. unfold pret in H. injection H; intros; subst. reflexivity.
Qed.

Lemma sized_uuid : sized dec_uuid.
Proof.
  intros h r l rsv r' Hok Hnm H G (Hsz & Hlen & _). unfold dec_uuid in H. step H.
  destruct (bytes_eqb a uuid_tfxd); [run H; inj_pret H; reflexivity|].
  destruct (bytes_eqb a uuid_tfrf).
  { run H. tail_many H (item_pairw (uuid_w (vf_version a0))). inj_pret H. cbn [leaf_size_guard]. apply N.leb_le. lia. }
  destruct (bytes_eqb a uuid_piff).
  { destruct (h_size h <? 16) eqn:E16; [discriminate H|].
    apply pbind_ok in H. destruct H as ([l0 rsv0] & r1 & E & H). cbn [fst] in H.
    destruct l0; try discriminate H. inj_pret H.
    unfold dec_senc in E. cbn [h_size h_len payload_len] in E. unfold payload_len in E. cbn [h_size h_len] in E. run E. inj_pret E.
    cbn [leaf_size_guard leaf_guard size_leaf leaf_large] in *. apply N.eqb_eq.
    apply N.ltb_ge in Hc, Hc1, E16.
    destruct ((count =? 0) || (lenN raw =? 0)) eqn:Ez; cbn [negb] in *.
    - destruct (senc_keeps false count (h_size h - 16 - 8 + 8)) eqn:K; cbn [orb] in G.
      + lia.
      + apply N.eqb_eq in G. lia.
    - unfold senc_keeps. cbn [orb]. lia. }
  destruct (h_size h <? 24); [discriminate H|]. run H. inj_pret H. cbn [leaf_size_guard]. apply N.eqb_eq. assumption.
Qed.

Lemma stable_uuid : leaf_stable dec_uuid.
Proof. apply stable_of_local; [exact lossless_uuid|exact local_uuid|exact norsv_uuid|exact sized_uuid]. Qed.

(* ---------------------------------------------------------------- every table entry *)
Lemma pre_leaf_stable d : pre_stable d -> leaf_stable d.
Proof. intros H h r l rsv r' Hok Hnm E G _ _. exact (H _ _ _ _ _ Hok Hnm E G). Qed.

Ltac sol L Lo Nr S := apply stable_of_local; [exact L|exact Lo|exact Nr|first [exact S|apply psized_sized; exact S]].

Lemma stable_ftyp : leaf_stable dec_ftyp. Proof. sol lossless_ftyp local_ftyp norsv_ftyp psized_ftyp. Qed.
Lemma stable_free : leaf_stable dec_free. Proof. sol lossless_free local_free norsv_free psized_free. Qed.
Lemma stable_empty : leaf_stable dec_empty. Proof. sol lossless_empty local_empty norsv_empty psized_empty. Qed.
Lemma stable_b4 : leaf_stable dec_b4. Proof. sol lossless_b4 local_b4 norsv_b4 psized_b4. Qed.
Lemma stable_mfhd : leaf_stable dec_mfhd. Proof. sol lossless_mfhd local_mfhd norsv_mfhd psized_mfhd. Qed.
Lemma stable_tfhd : leaf_stable dec_tfhd. Proof. sol lossless_tfhd local_tfhd norsv_tfhd psized_tfhd. Qed.
Lemma stable_tfdt : leaf_stable dec_tfdt. Proof. sol lossless_tfdt local_tfdt norsv_tfdt psized_tfdt. Qed.
Lemma stable_trun : leaf_stable dec_trun. Proof. sol lossless_trun local_trun norsv_trun psized_trun. Qed.
Lemma stable_trex : leaf_stable dec_trex. Proof. sol lossless_trex local_trex norsv_trex psized_trex. Qed.
Lemma stable_stts : leaf_stable dec_stts. Proof. sol lossless_stts local_stts norsv_stts psized_stts. Qed.
Lemma stable_stsc : leaf_stable dec_stsc. Proof. sol lossless_stsc local_stsc norsv_stsc psized_stsc. Qed.
Lemma stable_stsz : leaf_stable dec_stsz. Proof. sol lossless_stsz local_stsz norsv_stsz psized_stsz. Qed.
Lemma stable_tab4 : leaf_stable (dec_tab 4).
Proof. sol (lossless_tab 4) (local_tab 4 ltac:(lia)) (norsv_tab 4) (psized_tab 4). Qed.
Lemma stable_tab8 : leaf_stable (dec_tab 8).
Proof. sol (lossless_tab 8) (local_tab 8 ltac:(lia)) (norsv_tab 8) (psized_tab 8). Qed.
Lemma stable_sdtp : leaf_stable dec_sdtp. Proof. sol lossless_sdtp local_sdtp norsv_sdtp psized_sdtp. Qed.
Lemma stable_ctts : leaf_stable dec_ctts. Proof. sol lossless_ctts local_ctts norsv_ctts psized_ctts. Qed.
Lemma stable_elst : leaf_stable dec_elst. Proof. sol lossless_elst local_elst_box norsv_elst psized_elst. Qed.
Lemma stable_saiz : leaf_stable dec_saiz. Proof. sol lossless_saiz local_saiz norsv_saiz psized_saiz. Qed.
Lemma stable_saio : leaf_stable dec_saio. Proof. sol lossless_saio local_saio norsv_saio psized_saio. Qed.
Lemma stable_sbgp : leaf_stable dec_sbgp. Proof. sol lossless_sbgp local_sbgp norsv_sbgp psized_sbgp. Qed.
Lemma stable_prft : leaf_stable dec_prft. Proof. sol lossless_prft local_prft norsv_prft psized_prft. Qed.
Lemma stable_frma : leaf_stable dec_frma. Proof. sol lossless_frma local_frma norsv_frma psized_frma. Qed.
Lemma stable_vmhd : leaf_stable dec_vmhd. Proof. sol lossless_vmhd local_vmhd norsv_vmhd psized_vmhd. Qed.
Lemma stable_fullonly : leaf_stable dec_fullonly. Proof. sol lossless_fullonly local_fullonly norsv_fullonly psized_fullonly. Qed.
Lemma stable_mfro : leaf_stable dec_mfro. Proof. sol lossless_mfro local_mfro norsv_mfro psized_mfro. Qed.
Lemma stable_mehd : leaf_stable dec_mehd. Proof. sol lossless_mehd local_mehd norsv_mehd psized_mehd. Qed.
Lemma stable_pssh : leaf_stable dec_pssh. Proof. sol lossless_pssh local_pssh norsv_pssh psized_pssh. Qed.
Lemma stable_url : leaf_stable dec_url. Proof. sol lossless_url local_url norsv_url psized_url. Qed.
Lemma stable_btrt : leaf_stable dec_btrt. Proof. sol lossless_btrt local_btrt norsv_btrt psized_btrt. Qed.
Lemma stable_pasp : leaf_stable dec_pasp. Proof. sol lossless_pasp local_pasp norsv_pasp psized_pasp. Qed.
Lemma stable_clap : leaf_stable dec_clap. Proof. sol lossless_clap local_clap norsv_clap psized_clap. Qed.
Lemma stable_schm : leaf_stable dec_schm. Proof. sol lossless_schm local_schm norsv_schm psized_schm. Qed.
Lemma stable_cslg : leaf_stable dec_cslg. Proof. sol lossless_cslg local_cslg norsv_cslg psized_cslg. Qed.
Lemma stable_senc : leaf_stable dec_senc. Proof. sol lossless_senc local_senc norsv_senc sized_senc. Qed.
Lemma stable_emsg : leaf_stable dec_emsg. Proof. sol lossless_emsg local_emsg norsv_emsg psized_emsg. Qed.
Lemma stable_kind : leaf_stable dec_kind. Proof. sol lossless_kind local_kind norsv_kind psized_kind. Qed.
Lemma stable_subs : leaf_stable dec_subs. Proof. sol lossless_subs local_subs norsv_subs psized_subs. Qed.

Lemma pstable_stsd : pre_stable dec_stsd.
Proof. apply pre_stable_of_local; [exact lossless_stsd|exact local_stsd|exact norsv_stsd|exact psized_stsd]. Qed.
Lemma pstable_dref : pre_stable dec_dref.
Proof. apply pre_stable_of_local; [exact lossless_dref|exact local_dref|exact norsv_dref|exact psized_dref]. Qed.

Lemma stable_data : leaf_stable dec_data. Proof. sol lossless_data local_data norsv_data psized_data. Qed.
Lemma stable_mime : leaf_stable dec_mime. Proof. sol lossless_mime local_mime norsv_mime psized_mime. Qed.
(* wvtt prefix: a box whose prefix was read (leaf_guard) is re-read from the encoder's bytes *)
Lemma pstable_wvtt : pre_stable dec_wvtt.
Proof.
  intros h r l rsv r' Hok Hnm H G. pose proof (psized_wvtt _ _ _ _ _ Hok Hnm H) as Hg. unfold dec_wvtt in H.
  destruct (rdB 6 r) as [[r6 r1]| | |] eqn:E6;
    [|destruct (16 <? h_size h); [discriminate|]; injection H as <- <- <-; discriminate G..].
  destruct (rdB_spec _ _ _ _ Hok E6) as (-> & Hl6 & _ & Hok1).
  destruct (rd 2 r1) as [[dri rz]| | |] eqn:E2;
    [|destruct (16 <? h_size h); [discriminate|]; injection H as <- <- <-; discriminate G..].
  injection H as <- <- <-. destruct (rd_spec _ _ _ _ Hok1 E2) as (-> & Hlt & Hok2).
  reencode. unfold dec_wvtt. repeat rewrite <- app_assoc. rp. reflexivity.
Qed.

(* dac3, dec3: the whole payload is read, then a pure function of it decides (C01Leaf6Proofs) *)
Lemma whole_stable f nm : whole_ok f nm -> leaf_stable (dec_whole f).
Proof.
  intros Hf h r l rsv r' Hok Hnm H G _ _. destruct (whole_run _ _ _ _ _ _ Hok H) as (d & -> & Hl & Hd & Hr' & Ef & ->).
  destruct (Hf _ _ Hd Ef) as (_ & Hdf & Hlg & Hb). destruct (Hb G) as [Hb1 Hs].
  unfold stable_concl. rewrite Hdf, Hlg. exists d. split; [exact Hb1|]. split; [now rewrite lenN_app|]. split; [lia|].
  intros r2. unfold dec_whole, pbind. rewrite rdB_lit by exact Hl. now rewrite Ef.
Qed.
Lemma stable_dac3 : leaf_stable dec_dac3. Proof. exact (whole_stable _ _ dac3_ok). Qed.
Lemma stable_dec3 : leaf_stable dec_dec3. Proof. exact (whole_stable _ _ dec3_ok). Qed.

Lemma pstable_fullonly : pre_stable dec_fullonly.
Proof. apply pre_stable_of_local; [exact lossless_fullonly|exact local_fullonly|exact norsv_fullonly|exact psized_fullonly]. Qed.

Lemma leaf_table_stable : Forall (fun e => leaf_stable (snd e)) leaf_table.
Proof.
  unfold leaf_table. repeat apply Forall_cons; try apply Forall_nil; cbn [snd].
  all: [>
    exact stable_ftyp | exact stable_ftyp | exact stable_free | exact stable_free | exact stable_mdat |
    exact stable_mfhd | exact stable_tfhd | exact stable_tfdt | exact stable_trun |
    exact (pre_leaf_stable _ pstable_mvhd) | exact (pre_leaf_stable _ pstable_tkhd) |
    exact (pre_leaf_stable _ pstable_sidx) | exact stable_trex | exact (pre_leaf_stable _ pstable_mdhd) |
    exact (pre_leaf_stable _ pstable_hdlr) | exact stable_stts | exact stable_stsc | exact stable_stsz |
    exact stable_tab4 | exact stable_tab4 | exact stable_tab8 | exact stable_sdtp | exact stable_ctts |
    exact stable_elst | exact stable_saiz | exact stable_saio | exact stable_sbgp | exact stable_prft |
    exact (pre_leaf_stable _ pstable_tenc) | exact stable_frma | exact stable_vmhd |
    exact (pre_leaf_stable _ pstable_smhd) | exact stable_fullonly | exact stable_fullonly | exact stable_mfro |
    exact stable_mehd | exact (pre_leaf_stable _ pstable_tfra) | exact stable_pssh | exact stable_url |
    exact stable_avcC | exact stable_btrt | exact stable_pasp | exact (pre_leaf_stable _ pstable_colr) |
    exact stable_clap | exact stable_schm | exact stable_cslg | exact stable_senc | exact stable_emsg |
    exact stable_elng | exact stable_kind | exact stable_hvcC | exact stable_subs | exact stable_esds |
    exact stable_uuid | exact stable_sgpd | exact stable_free | exact stable_free | exact stable_free |
    exact stable_free | exact stable_free | exact stable_free | exact stable_free | exact stable_empty |
    exact stable_b4 | exact stable_data | exact stable_mime | exact stable_dac3 | exact stable_dec3 ].
Qed.

Lemma pre_table_stable : Forall (fun e => pre_stable (fst (snd e))) pre_table.
Proof.
  unfold pre_table. repeat apply Forall_cons; try apply Forall_nil; cbn [fst snd];
    first [ exact pstable_stsd | exact pstable_dref | exact pstable_visual | exact pstable_audio | exact pstable_fullonly | exact pstable_wvtt ].
Qed.
