(* C01GenWitness.v -- the hypotheses of C01_fixpoint (second conjunct) are satisfiable by inputs that the first generation does NOT reproduce
   (trailing body bytes dropped: url, avcC, mfhd; a dac3 payload padded), and gen2_ok is sufficient, not necessary (an esds that
   kept UnknownData is written back unchanged, yet the model's guard names a reason: class G2Why). *)
From V.lib Require Import Base.
From V.c01 Require Import C01Codec C01Model C01Witness C01Witness3 C01Witness5 C01Witness6 C01GenModel.

(* accepted, inexact, Box.Encode succeeds with bytes that differ from the input, and those bytes satisfy gen2_ok *)
Definition lossy_then_fixed (w : list N) : Prop :=
  exists t rest enc, decode w = Ok (t, rest) /\ exact_box t = false /\ encode_w t = Ok enc /\ enc ++ rest <> w /\ gen2_ok enc = true.
Ltac lossy w := exists (treeof w), (rest_of w), (enc_of w); vm_compute; repeat split; first [discriminate | let H := fresh in intro H; inversion H].

Lemma gen2_examples : lossy_then_fixed w_url_tail /\ lossy_then_fixed w_avcc_extra /\ lossy_then_fixed w_mfhd_trailing /\
  lossy_then_fixed w_dac3_short /\ lossy_then_fixed w_elng_unterminated.
Proof. repeat split. - lossy w_url_tail. - lossy w_avcc_extra. - lossy w_mfhd_trailing. - lossy w_dac3_short. - lossy w_elng_unterminated. Qed.

Lemma gen2_guard_example : encode_w (treeof (ex_esds 0)) = Ok (ex_esds 0) /\ gen2 (ex_esds 0) = G2Why /\
  decode (ex_esds 0) = Ok (treeof (ex_esds 0), []).
Proof. vm_compute. repeat split. Qed.

(* File level: the accepted file with a cut-short mdat (C01_file_truncated_mdat_refuted: 4 payload bytes lost by File.Encode):
   the 500 bytes File.Encode writes satisfy gen2_file_ok *)
From V.c01 Require Import C01FileModel C01FileExamples C01FileWitness C01GenFileModel.
Lemma gen2_file_example : decode_file_sr fx_trunc_mdat = FOk (fseq_of fx_trunc_mdat) /\ forallb exact_box (fseq_of fx_trunc_mdat) = false /\
  file_encode_w (fseq_of fx_trunc_mdat) = Ok (fenc_of fx_trunc_mdat) /\ lenN (fenc_of fx_trunc_mdat) = 500 /\ lenN fx_trunc_mdat = 504 /\
  gen2_file_ok (fenc_of fx_trunc_mdat) = true.
Proof. vm_compute. repeat split. Qed.

(* ---- finding C01-K79 (found by the second-generation correspondence): DecodeElngSR decides "full-box header missing"
   from the payload length alone (below 7 bytes).  The bytes ElngBox.Encode writes for a language of 0 or 1 letters have a payload
   of 5 / 6 bytes and are read back as a bare string whose first byte is the zero of version/flags: CreateElng("x") written by the
   library itself is accepted again with Language "" and missingFullBox = true (first part), and an accepted elng with bytes after
   an empty language goes 16 -> 13 -> 9 bytes: its re-encoding is NOT a fixed point (class G2Rest: the second decode leaves bytes
   over, the third encoding differs). *)
Definition w_elng_x : list N := enc_hdr n_elng 14 ++ [0;0;0;0] ++ [120; 0].         (* CreateElng("x").Encode() *)
Definition w_elng_chain : list N := enc_hdr n_elng 16 ++ [0;0;0;0] ++ [0; 0; 83; 0].
Lemma elng_generation2_refuted :
  (raw_box false (MLeaf {| h_name := n_elng; h_size := 14; h_len := 8 |} (LElng false 0 0 [120]) [[120; 0]]) = Ok w_elng_x /\
   exists h rsv rest, decode w_elng_x = Ok (MLeaf h (LElng true 0 0 []) rsv, rest) /\ rest <> []) /\
  (exists t rest enc t2 rest2 enc3, decode w_elng_chain = Ok (t, rest) /\ encode_w t = Ok enc /\ gen2 enc = G2Rest /\
     decode enc = Ok (t2, rest2) /\ rest2 <> [] /\ encode_w t2 = Ok enc3 /\ lenN enc = 13 /\ lenN enc3 = 9).
Proof.
  split.
  - split; [vm_compute; reflexivity|]. eexists _, _, _. split; [vm_compute; reflexivity|discriminate].
  - exists (treeof w_elng_chain), (rest_of w_elng_chain), (enc_of w_elng_chain), (treeof (enc_of w_elng_chain)), (rest_of (enc_of w_elng_chain)),
      (enc_of (enc_of w_elng_chain)). vm_compute. repeat split; discriminate.
Qed.
