(* C01Witness6.v — MetaBox in both forms around real iTunes metadata, the repaired DataBox, mime,
   the WebVTT sample entry.  All by computation. *)
From V.lib Require Import Base.
From V.c01 Require Import C01Codec C01Model C01Witness C01Witness3.

(* mp4/testdata/bbb5s_aac_sidx.mp4, the udta box: udta{meta(ISO){hdlr ilst{(c)too{data "GPAC-2.2.1-revrelease"}}}}, 106 bytes *)
Definition rb_udta_meta : list N := [0; 0; 0; 106; 117; 100; 116; 97; 0; 0; 0; 98; 109; 101; 116; 97; 0; 0; 0; 0; 0; 0; 0; 33; 104; 100; 108; 114; 0; 0; 0; 0; 0; 0; 0; 0; 109; 100; 105; 114; 0; 0; 0; 0; 0; 0; 0; 0; 0; 0; 0; 0; 0; 0; 0; 0; 53; 105; 108; 115; 116; 0; 0; 0; 45; 169; 116; 111; 111; 0; 0; 0; 37; 100; 97; 116; 97; 0; 0; 0; 1; 0; 0; 0; 0; 71; 80; 65; 67; 45; 50; 46; 50; 46; 49; 45; 114; 101; 118; 114; 101; 108; 101; 97; 115; 101].
(* the same metadata in a QuickTime meta atom (no version and flags: the hdlr box comes first) *)
Definition rb_udta_meta_qt : list N := [0; 0; 0; 102; 117; 100; 116; 97; 0; 0; 0; 94; 109; 101; 116; 97; 0; 0; 0; 33; 104; 100; 108; 114; 0; 0; 0; 0; 0; 0; 0; 0; 109; 100; 105; 114; 0; 0; 0; 0; 0; 0; 0; 0; 0; 0; 0; 0; 0; 0; 0; 0; 53; 105; 108; 115; 116; 0; 0; 0; 45; 169; 116; 111; 111; 0; 0; 0; 37; 100; 97; 116; 97; 0; 0; 0; 1; 0; 0; 0; 0; 71; 80; 65; 67; 45; 50; 46; 50; 46; 49; 45; 114; 101; 118; 114; 101; 108; 101; 97; 115; 101].
Definition ex_data21 : list N := [0; 0; 0; 18; 100; 97; 116; 97; 0; 0; 0; 21; 0; 0; 101; 110; 0; 7].
Definition ex_mime : list N := [0; 0; 0; 23; 109; 105; 109; 101; 0; 0; 0; 0; 116; 101; 120; 116; 47; 112; 108; 97; 105; 110; 0].
Definition ex_wvtt : list N := [0; 0; 0; 61; 119; 118; 116; 116; 0; 0; 0; 0; 0; 0; 0; 1; 0; 0; 0; 14; 118; 116; 116; 67; 87; 69; 66; 86; 84; 84; 0; 0; 0; 11; 118; 108; 97; 98; 115; 114; 99; 0; 0; 0; 20; 98; 116; 114; 116; 0; 0; 0; 1; 0; 0; 0; 2; 0; 0; 0; 3].
Definition ex_wvtt_rsv : list N := [0; 0; 0; 30; 119; 118; 116; 116; 1; 2; 3; 4; 5; 6; 0; 1; 0; 0; 0; 14; 118; 116; 116; 67; 87; 69; 66; 86; 84; 84].
Definition ex_wvtt_short : list N := [0; 0; 0; 12; 119; 118; 116; 116; 0; 0; 0; 0].

Definition fixed_point (bs : list N) : Prop :=
  bytes_ok bs = true /\ decode bs = Ok (treeof bs, []) /\ exact_box (treeof bs) = true /\ why_box (treeof bs) = [] /\
  raw_box false (treeof bs) = Ok bs /\ encode_w (treeof bs) = Ok bs /\ encode_sw (treeof bs) = Ok bs.

Lemma ex_meta_iso_ok : fixed_point rb_udta_meta /\
  match treeof rb_udta_meta with
  | MCont _ [MPre _ (LFullOnly _ 0 0) _ [MLeaf _ (LHdlr _ _ _ _ _ _) _; MCont _ [MCont _ [MLeaf _ (LData 1 0 _) _]]]] => True
  | _ => False
  end.
Proof. vm_compute. repeat split. Qed.
Lemma ex_meta_qt_ok : fixed_point rb_udta_meta_qt /\
  match treeof rb_udta_meta_qt with
  | MCont _ [MCont h [MLeaf _ (LHdlr _ _ _ _ _ _) _; MCont _ [MCont _ [MLeaf _ (LData 1 0 _) _]]]] => h_name h = n_meta
  | _ => False
  end.
Proof. vm_compute. repeat split. Qed.
(* finding C01-F7 (repaired by repo commit f36e540): a value atom with type indicator 21 (integer) and a locale was
   re-encoded with type 1 and locale 0; now both are kept *)
Lemma data_type_fixed : fixed_point ex_data21 /\
  match treeof ex_data21 with MLeaf _ (LData 21 25966 [0; 7]) _ => True | _ => False end.
Proof. vm_compute. repeat split. Qed.
Lemma ex_mime_ok : fixed_point ex_mime. Proof. vm_compute. repeat split. Qed.
Lemma ex_wvtt_ok : fixed_point ex_wvtt /\
  match treeof ex_wvtt with MPre _ (LWvtt 1 false) _ [MLeaf _ (LFree _ _) _; MLeaf _ (LFree _ _) _; MLeaf _ (LBtrt 1 2 3) _] => True | _ => False end.
Proof. vm_compute. repeat split. Qed.
(* the six reserved bytes of the sample entry are captured and written as zeros (don't-care list: wvtt offset 0 length 6) *)
Lemma ex_wvtt_rsv_ok : decode ex_wvtt_rsv = Ok (treeof ex_wvtt_rsv, []) /\ exact_box (treeof ex_wvtt_rsv) = true /\
  why_box (treeof ex_wvtt_rsv) = [(n_wvtt, RRsv true 0)] /\ raw_box true (treeof ex_wvtt_rsv) = Ok ex_wvtt_rsv.
Proof. vm_compute. repeat split. Qed.
(* DecodeWvttSR does not ask the reader for its error: a 12-byte wvtt at the end of a slice is accepted with index 0 and
   re-encoded as 16 bytes (leaf_guard of LWvtt excludes it; class header-size-ignored) *)
Lemma wvtt_short_refuted : decode ex_wvtt_short = Ok (treeof ex_wvtt_short, [0; 0; 0; 0]) /\ exact_box (treeof ex_wvtt_short) = false /\
  leaf_guard (LWvtt 0 true) = false /\ lenN ex_wvtt_short = 12 /\
  match encode_w (treeof ex_wvtt_short) with Ok enc => lenN enc = 16 | _ => False end.
Proof. vm_compute. repeat split. Qed.

(* (c) the two ghost guards, refuted by witnesses (both replayed on the real code by the search):
   esds -- a DecSpecificInfo size field of eleven bytes `81 80*9 02` whose leading group overflows readSizeSize's uint64
   (finding C01-K77): sizeFieldSizeMinus1 is kept, the lost bits are not, the encoder writes 80 for the leading group;
   sgpd -- the reserved byte of a seig entry (0x55 here) is skipped and written as 0 (ISO reserved, but the byte-granular
   don't-care list cannot name it: its offset depends on the entries before it); captured, no guard any more *)
Definition w_esds_overflow : list N := [0; 0; 0; 49; 101; 115; 100; 115; 0; 0; 0; 0; 3; 35; 0; 1; 0; 4; 27; 64; 21; 0; 0; 0; 0; 1; 244; 0; 0; 1; 244; 0; 5; 129; 128; 128; 128; 128; 128; 128; 128; 128; 128; 2; 17; 144; 6; 1; 2].
Definition w_sgpd_seig_rsv : list N := [0; 0; 0; 44; 115; 103; 112; 100; 1; 0; 0; 0; 115; 101; 105; 103; 0; 0; 0; 20; 0; 0; 0; 1; 85; 0; 1; 8; 0; 1; 2; 3; 4; 5; 6; 7; 8; 9; 10; 11; 12; 13; 14; 15].
Lemma esds_overflow_refuted : refutes w_esds_overflow [(n_esds, RGuard); (n_esds, RRsv false 2)].
Proof. refute w_esds_overflow. Qed.
Lemma sgpd_seig_rsv_refuted : refutes w_sgpd_seig_rsv [(n_sgpd, RRsv true 0)].
Proof. refute w_sgpd_seig_rsv. Qed.
(* since the third round the byte is captured and sgpd has no guard: this input is exact, i.e. inside C01_fixpoint *)
Lemma sgpd_seig_rsv_exact : exact_box (treeof w_sgpd_seig_rsv) = true /\ decode w_sgpd_seig_rsv = Ok (treeof w_sgpd_seig_rsv, []) /\
  raw_box true (treeof w_sgpd_seig_rsv) = Ok w_sgpd_seig_rsv.
Proof. vm_compute. repeat split. Qed.

(* dac3 (with two initial zero bytes) and dec3 (two substreams, the second with dependent substreams and ChanLoc, one Reserved
   byte): typed, exact, fixed points; and what their guards exclude *)
Definition ex_dac3 : list N := [0; 0; 0; 11; 100; 97; 99; 51; 16; 61; 64].
Definition ex_dac3_zeroes : list N := [0; 0; 0; 13; 100; 97; 99; 51; 0; 0; 80; 17; 255].
Definition ex_dec3 : list N := [0; 0; 0; 18; 100; 101; 99; 51; 12; 1; 32; 15; 3; 33; 96; 142; 0; 170].
Definition w_dac3_short : list N := [0; 0; 0; 10; 100; 97; 99; 51; 18; 52].
Definition w_dec3_rsv : list N := [0; 0; 0; 13; 100; 101; 99; 51; 7; 192; 33; 15; 0].
Lemma ex_dac3_ok : fixed_point ex_dac3 /\ fixed_point ex_dac3_zeroes /\
  match treeof ex_dac3_zeroes with MLeaf _ (LDac3 1 8 0 2 0 15 31 2 true) _ => True | _ => False end.
Proof. vm_compute. repeat split. Qed.
Lemma ex_dec3_ok : fixed_point ex_dec3 /\
  match treeof ex_dec3 with MLeaf _ (LDec3 384 [(0, 16, 0, 0, 7, 1, 1, 289); (1, 16, 1, 0, 7, 0, 0, 0)] [170] true) _ => True | _ => False end.
Proof. vm_compute. repeat split. Qed.
(* a dac3 payload of two bytes is accepted (the bit reader's error is not looked at) and written back with three *)
Lemma dac3_short_refuted : refutes w_dac3_short [(n_dac3, RSizeSmall); (n_dac3, RGuard)].
Proof. refute w_dac3_short. Qed.
(* the reserved bit beside BSID of a dec3 substream is dropped and written as 0 *)
Lemma dec3_rsv_refuted : refutes w_dec3_rsv [(n_dec3, RGuard)].
Proof. refute w_dec3_rsv. Qed.
