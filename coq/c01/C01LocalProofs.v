(* C01LocalProofs.v — the decoders are LOCAL: a successful run consumes a prefix x of the slice and does not
   look at what follows it; on x ++ r2 it returns the same value and leaves r2.  This is what lets the
   fixed-point theorem re-decode a box whose later siblings changed (their reserved bytes were rewritten).
   Proved compositionally for the parser combinators of C01Codec, then for every decoder built from them. *)
From V.lib Require Import Base.
From V.c01 Require Import C01Codec C01Model C01LeafProofs.

Definition local {A} (p : parser A) : Prop :=
  forall bs a r, p bs = Ok (a, r) -> exists x, bs = x ++ r /\ forall r2, p (x ++ r2) = Ok (a, r2).

(* a parser that cannot succeed on the empty slice without ... consuming nothing of it *)
Definition progress {A} (p : parser A) : Prop := forall a, p [] <> Ok (a, []).

Lemma local_pret {A} (a : A) : local (pret a).
Proof. intros bs a' r H. injection H as <- <-. exists []. split; reflexivity. Qed.

Lemma local_pfail {A} : local (@pfail A).
Proof. intros bs a r H. discriminate. Qed.

(* what a successful read consumed *)
Lemma rd_inv n bs v r : rd n bs = Ok (v, r) -> exists x, bs = x ++ r /\ length x = n /\ v = be_dec x.
Proof.
  unfold rd. destruct (take n bs) as [[x r0]|] eqn:E; [|discriminate]. intros H. injection H as <- <-.
  destruct (take_spec _ _ _ _ E) as [-> Hl]. now exists x.
Qed.

Lemma rdB_inv n bs x r : rdB n bs = Ok (x, r) -> bs = x ++ r /\ lenN x = n.
Proof.
  unfold rdB. destruct (lenN bs <? n); [discriminate|]. destruct (take (N.to_nat n) bs) as [[x0 r0]|] eqn:E; [|discriminate].
  intros H. injection H as <- <-. destruct (take_spec _ _ _ _ E) as [-> Hl]. split; [reflexivity|]. unfold lenN. lia.
Qed.

Lemma local_rd n : local (rd n).
Proof.
  intros bs v r H. destruct (rd_inv _ _ _ _ H) as (x & -> & <- & ->). exists x. split; [reflexivity|].
  intros r2. unfold rd. now rewrite take_app.
Qed.

Lemma local_rdB n : local (rdB n).
Proof.
  intros bs x r H. destruct (rdB_inv _ _ _ _ H) as [-> <-]. exists x. split; [reflexivity|]. intros r2. apply rdB_app.
Qed.

(* a local parser replays on the bytes it is known to have consumed *)
Lemma local_print {A} (p : parser A) w bs a r : local p -> p bs = Ok (a, r) -> bs = w ++ r -> forall r2, p (w ++ r2) = Ok (a, r2).
Proof. intros Hp H ->. destruct (Hp _ _ _ H) as (x & Hx & Hloc). apply app_inv_tail in Hx. now subst x. Qed.

Lemma local_rd_if c n : local (rd_if c n).
Proof. unfold rd_if. destruct c; [apply local_rd|apply local_pret]. Qed.

Lemma local_rdB_if c n : local (rdB_if c n).
Proof. unfold rdB_if. destruct c; [apply local_rdB|apply local_pret]. Qed.

Lemma local_bind {A B} (p : parser A) (f : A -> parser B) :
  local p -> (forall a, local (f a)) -> local (pbind p f).
Proof.
  intros Hp Hf bs b r H. apply pbind_ok in H. destruct H as (a & r1 & E1 & E2).
  destruct (Hp _ _ _ E1) as (x1 & -> & H1). destruct (Hf a _ _ _ E2) as (x2 & -> & H2).
  exists (x1 ++ x2). split; [now rewrite app_assoc|].
  intros r2. unfold pbind. rewrite <- app_assoc, H1. apply H2.
Qed.

Lemma local_zt : forall n, local (rd_zt n).
Proof.
  unfold local, rd_zt. intros n bs. revert n.
  induction bs as [|c t IH]; intros n s r H; cbn [zt] in H.
  - destruct (n =? 0); discriminate.
  - destruct (n =? 0) eqn:En; [discriminate|]. destruct (c =? 0) eqn:E0.
    + injection H as <- <-. exists [c]. split; [reflexivity|]. intros r2. cbn [app zt]. now rewrite En, E0.
    + destruct (zt t (n - 1)) as [[s' r']| | |] eqn:E; try discriminate. injection H as <- <-.
      destruct (IH _ _ _ E) as (x & -> & Hx). exists (c :: x). split; [reflexivity|].
      intros r2. cbn [app zt]. rewrite En, E0, Hx. reflexivity.
Qed.

Lemma local_pz : forall n, local (rd_pz n).
Proof.
  unfold local, rd_pz. intros n bs. revert n.
  induction bs as [|c t IH]; intros n [s z] r H; cbn [pz] in H.
  - destruct (n =? 0) eqn:En; [|discriminate]. injection H as <- <- <-. exists []. split; [reflexivity|].
    intros r2. cbn [app]. destruct r2; cbn [pz]; now rewrite En.
  - destruct (n =? 0) eqn:En.
    + injection H as <- <- <-. exists []. split; [reflexivity|].
      intros r2. cbn [app]. destruct r2; cbn [pz]; now rewrite En.
    + destruct (c =? 0) eqn:E0.
      * injection H as <- <- <-. exists [c]. split; [reflexivity|]. intros r2. cbn [app pz]. now rewrite En, E0.
      * destruct (pz t (n - 1)) as [[[s' z'] r']| | |] eqn:E; try discriminate. injection H as <- <- <-.
        destruct (IH _ _ _ E) as (x & -> & Hx). exists (c :: x). split; [reflexivity|].
        intros r2. cbn [app pz]. rewrite En, E0, Hx. reflexivity.
Qed.

(* ---------------------------------------------------------------- counted repetition *)
Lemma many_local {A} (p : parser A) : local p ->
  forall f cnt bs l r, rd_many f cnt p bs = Ok (l, r) ->
  exists x, bs = x ++ r /\ lenN l = cnt /\
    forall f' r2, (length l <= f')%nat -> rd_many f' cnt p (x ++ r2) = Ok (l, r2).
Proof.
  intros Hp. induction f as [|f IH]; intros cnt bs l r H; cbn [rd_many] in H.
  - destruct (cnt =? 0) eqn:Ec; [|discriminate]. injection H as <- <-. exists [].
    split; [reflexivity|]. split; [apply N.eqb_eq in Ec; now subst|].
    intros f' r2 _. destruct f'; cbn [rd_many app]; now rewrite Ec.
  - destruct (cnt =? 0) eqn:Ec.
    + injection H as <- <-. exists [].
      split; [reflexivity|]. split; [apply N.eqb_eq in Ec; now subst|].
      intros f' r2 _. destruct f'; cbn [rd_many app]; now rewrite Ec.
    + destruct (p bs) as [[a r1]| | |] eqn:E1; try discriminate.
      destruct (rd_many f (cnt - 1) p r1) as [[l' r']| | |] eqn:E2; try discriminate.
      injection H as <- <-.
      destruct (Hp _ _ _ E1) as (x1 & -> & H1). destruct (IH _ _ _ _ E2) as (x2 & -> & Hl & H2).
      exists (x1 ++ x2). split; [now rewrite app_assoc|]. apply N.eqb_neq in Ec.
      split; [rewrite lenN_cons; lia|].
      intros f' r2 Hf. destruct f' as [|f']; [cbn in Hf; lia|]. cbn [rd_many].
      replace (cnt =? 0) with false by (symmetry; now apply N.eqb_neq).
      rewrite <- app_assoc, H1, H2 by (cbn in Hf; lia). reflexivity.
Qed.

Lemma progress_nonempty {A} (p : parser A) : local p -> progress p ->
  forall bs a r, p bs = Ok (a, r) -> (length r < length bs)%nat.
Proof.
  intros Hp Hg bs a r H. destruct (Hp _ _ _ H) as (x & -> & Hx). destruct x as [|c x].
  - exfalso. apply (Hg a). exact (Hx []).
  - rewrite app_length. cbn [length]. lia.
Qed.

Lemma many_len {A} (p : parser A) : local p -> progress p ->
  forall f cnt bs l r, rd_many f cnt p bs = Ok (l, r) -> (length l + length r <= length bs)%nat.
Proof.
  intros Hp Hg. induction f as [|f IH]; intros cnt bs l r H; cbn [rd_many] in H.
  - destruct (cnt =? 0); [|discriminate]. injection H as <- <-. cbn. lia.
  - destruct (cnt =? 0); [injection H as <- <-; cbn; lia|].
    destruct (p bs) as [[a r1]| | |] eqn:E1; try discriminate.
    destruct (rd_many f (cnt - 1) p r1) as [[l' r']| | |] eqn:E2; try discriminate.
    injection H as <- <-. pose proof (progress_nonempty p Hp Hg _ _ _ E1). pose proof (IH _ _ _ _ E2).
    cbn [length]. lia.
Qed.

(* `for i := 0; i < cnt; i++` whose fuel is taken from the slice: enough whenever the items are not empty *)
Lemma local_many_S {A B} (p : parser A) cnt (k : list A -> parser B) :
  local p -> progress p -> (forall es, local (k es)) ->
  local (fun bs => pbind (rd_many (S (length bs)) cnt p) k bs).
Proof.
  intros Hp Hg Hk bs b r H. apply pbind_ok in H. destruct H as (l & r1 & E1 & E2).
  destruct (many_local p Hp _ _ _ _ _ E1) as (x1 & -> & _ & H1).
  pose proof (many_len p Hp Hg _ _ _ _ _ E1) as Hlen.
  destruct (Hk l _ _ _ E2) as (x2 & -> & H2).
  exists (x1 ++ x2). split; [now rewrite app_assoc|]. intros r2. unfold pbind.
  rewrite <- app_assoc. rewrite H1; [apply H2|]. rewrite !app_length in *. lia.
Qed.

Lemma local_many_S' {A} (p : parser A) cnt : local p -> progress p ->
  local (fun bs => rd_many (S (length bs)) cnt p bs).
Proof.
  intros Hp Hg bs l r E1.
  destruct (many_local p Hp _ _ _ _ _ E1) as (x1 & -> & _ & H1).
  pose proof (many_len p Hp Hg _ _ _ _ _ E1) as Hlen.
  exists x1. split; [reflexivity|]. intros r2. apply H1. rewrite !app_length in *. lia.
Qed.

(* constant fuel (avcC parameter sets) *)
Lemma many_fuel_len {A} (p : parser A) : forall f cnt bs l r, rd_many f cnt p bs = Ok (l, r) -> (length l <= f)%nat.
Proof.
  induction f as [|f IH]; intros cnt bs l r H; cbn [rd_many] in H.
  - destruct (cnt =? 0); [|discriminate]. injection H as <- <-. cbn. lia.
  - destruct (cnt =? 0); [injection H as <- <-; cbn; lia|].
    destruct (p bs) as [[a r1]| | |]; try discriminate.
    destruct (rd_many f (cnt - 1) p r1) as [[l' r']| | |] eqn:E2; try discriminate.
    injection H as <- <-. specialize (IH _ _ _ _ E2). cbn [length]. lia.
Qed.

Lemma local_many_const {A} (p : parser A) f cnt : local p -> local (rd_many f cnt p).
Proof.
  intros Hp bs l r H. destruct (many_local p Hp _ _ _ _ _ H) as (x & -> & _ & Hx).
  exists x. split; [reflexivity|]. intros r2. apply Hx. exact (many_fuel_len p _ _ _ _ _ H).
Qed.

(* ---------------------------------------------------------------- the shared tactic *)
Lemma local_other {A} (p : parser A) : (forall bs, match p bs with Ok _ => False | _ => True end) -> local p.
Proof. intros Hn bs a r H. specialize (Hn bs). now rewrite H in Hn. Qed.

Ltac loc :=
  repeat (cbv beta zeta;
    first [ apply local_pret | apply local_pfail | apply local_rd | apply local_rdB | apply local_rd_if
          | apply local_rdB_if | apply local_zt | apply local_pz
          | apply local_many_S; [ | | intros ? ]
          | apply local_many_S'
          | apply local_bind; [ | intros ? ]
          | match goal with |- local (if ?c then _ else _) => destruct c eqn:? end
          | match goal with |- local (match ?x with _ => _ end) => destruct x eqn:? end ]).

Ltac prog := intros ? Hprog; vm_compute in Hprog; discriminate Hprog.

(* ---------------------------------------------------------------- items of the tables *)
Lemma local_pair : local rd_pair. Proof. unfold rd_pair. loc. Qed.
Lemma local_triple : local rd_triple. Proof. unfold rd_triple. loc. Qed.
Lemma local_sref : local rd_sref. Proof. unfold rd_sref. loc. Qed.
Lemma local_elst w : local (rd_elst w). Proof. unfold rd_elst. loc. Qed.
Lemma local_tfra w a b c : local (rd_tfra w a b c). Proof. unfold rd_tfra. loc. Qed.
Lemma local_tsample fl : local (rd_tsample fl). Proof. unfold rd_tsample. loc. Qed.
Lemma local_nalu : local rd_nalu. Proof. unfold rd_nalu. loc. Qed.

Lemma rd_nil n a : rd (S n) [] <> Ok (a, []).
Proof. discriminate. Qed.
Lemma progress_rd_S n : progress (rd (S n)). Proof. intros a. apply rd_nil. Qed.
Lemma progress_rd48 (c : bool) : progress (rd (if c then 4%nat else 8%nat)).
Proof. destruct c; apply progress_rd_S. Qed.
Lemma progress_rd84 (c : bool) : progress (rd (if c then 8%nat else 4%nat)).
Proof. destruct c; apply progress_rd_S. Qed.
Lemma progress_rdB16 : progress (rdB 16). Proof. intros a H. discriminate H. Qed.
Lemma progress_pair : progress rd_pair. Proof. intros a H. discriminate H. Qed.
Lemma progress_triple : progress rd_triple. Proof. intros a H. discriminate H. Qed.
Lemma progress_sref : progress rd_sref. Proof. intros a H. discriminate H. Qed.
Lemma progress_elst (c : bool) : progress (rd_elst (if c then 8%nat else 4%nat)).
Proof. destruct c; intros a H; discriminate H. Qed.
Lemma progress_tfra w a b c : progress (rd_tfra (tfra_w w) a b c).
Proof. unfold tfra_w. destruct (w =? 1); intros x H; discriminate H. Qed.
Lemma progress_tsample fl : trun_bps fl <> 0 -> progress (rd_tsample fl).
Proof.
  intros Hb a H. unfold trun_bps in Hb. unfold rd_tsample, pbind, rd_if in H.
  destruct (has fl 256); [discriminate H|]. destruct (has fl 512); [discriminate H|].
  destruct (has fl 1024); [discriminate H|]. destruct (has fl 2048); [discriminate H|]. now apply Hb.
Qed.

(* the trun sample loop: its fuel has a constant slack for the samples without any field *)
Lemma local_many_trun fl cnt :
  (1024 <? cnt) && (trun_bps fl =? 0) = false ->
  local (fun bs => rd_many (length bs + 1100) cnt (rd_tsample fl) bs).
Proof.
  intros Hc bs l r E1.
  destruct (many_local _ (local_tsample fl) _ _ _ _ _ E1) as (x1 & -> & Hl & H1).
  exists x1. split; [reflexivity|]. intros r2. apply H1.
  destruct (trun_bps fl =? 0) eqn:Eb.
  - rewrite andb_true_r in Hc. apply N.ltb_ge in Hc. unfold lenN in Hl. lia.
  - apply N.eqb_neq in Eb.
    pose proof (many_len _ (local_tsample fl) (progress_tsample fl Eb) _ _ _ _ _ E1) as Hlen.
    rewrite !app_length in *. lia.
Qed.

(* ---------------------------------------------------------------- header and decoders *)
Lemma local_hdr : local dec_hdr.
Proof. unfold dec_hdr. loc. Qed.

Ltac locd := intros h; loc;
  try first [ apply progress_rd_S | apply progress_rd48 | apply progress_rd84 | apply progress_rdB16 | apply progress_pair
            | apply progress_triple | apply progress_sref | apply progress_elst | apply progress_tfra
            | apply local_pair | apply local_triple | apply local_sref | apply local_elst | apply local_tfra ].

Lemma local_ftyp : forall h, local (dec_ftyp h). Proof. unfold dec_ftyp. locd. Qed.
Lemma local_free : forall h, local (dec_free h). Proof. unfold dec_free. locd. Qed.
Lemma local_empty : forall h, local (dec_empty h). Proof. unfold dec_empty. locd. Qed.
Lemma local_b4 : forall h, local (dec_b4 h). Proof. unfold dec_b4. locd. Qed.
Lemma local_data : forall h, local (dec_data h). Proof. unfold dec_data. locd. Qed.
Lemma local_mime : forall h, local (dec_mime h). Proof. unfold dec_mime. locd. Qed.
Lemma local_mfhd : forall h, local (dec_mfhd h). Proof. unfold dec_mfhd. locd. Qed.
Lemma local_tfhd : forall h, local (dec_tfhd h). Proof. unfold dec_tfhd. locd. Qed.
Lemma local_tfdt : forall h, local (dec_tfdt h). Proof. unfold dec_tfdt. locd. Qed.
Lemma local_trex : forall h, local (dec_trex h). Proof. unfold dec_trex. locd. Qed.
Lemma local_trun : forall h, local (dec_trun h).
Proof. unfold dec_trun. intros h. loc. all: apply local_many_trun; assumption. Qed.
Lemma local_stts : forall h, local (dec_stts h). Proof. unfold dec_stts. locd. Qed.
Lemma local_stsc : forall h, local (dec_stsc h). Proof. unfold dec_stsc. locd. Qed.
Lemma local_stsz : forall h, local (dec_stsz h). Proof. unfold dec_stsz. locd. Qed.
Lemma local_tab w : (0 < w)%nat -> forall h, local (dec_tab w h).
Proof. intros Hw. unfold dec_tab. locd. destruct w; [lia|apply progress_rd_S]. Qed.
Lemma local_sdtp : forall h, local (dec_sdtp h). Proof. unfold dec_sdtp. locd. Qed.
Lemma local_ctts : forall h, local (dec_ctts h). Proof. unfold dec_ctts. locd. Qed.
Lemma local_elst_box : forall h, local (dec_elst h). Proof. unfold dec_elst. locd. Qed.
Lemma local_saiz : forall h, local (dec_saiz h). Proof. unfold dec_saiz. locd. Qed.
Lemma local_saio : forall h, local (dec_saio h). Proof. unfold dec_saio. locd. Qed.
Lemma local_sbgp : forall h, local (dec_sbgp h). Proof. unfold dec_sbgp. locd. Qed.
Lemma local_prft : forall h, local (dec_prft h). Proof. unfold dec_prft. locd. Qed.
Lemma local_frma : forall h, local (dec_frma h). Proof. unfold dec_frma. locd. Qed.
Lemma local_vmhd : forall h, local (dec_vmhd h). Proof. unfold dec_vmhd. locd. Qed.
Lemma local_fullonly : forall h, local (dec_fullonly h). Proof. unfold dec_fullonly. locd. Qed.
Lemma local_mfro : forall h, local (dec_mfro h). Proof. unfold dec_mfro. locd. Qed.
Lemma local_mehd : forall h, local (dec_mehd h). Proof. unfold dec_mehd. locd. Qed.
Lemma local_pssh : forall h, local (dec_pssh h). Proof. unfold dec_pssh. locd. Qed.
Lemma local_url : forall h, local (dec_url h). Proof. unfold dec_url. locd. Qed.
Lemma local_btrt : forall h, local (dec_btrt h). Proof. unfold dec_btrt. locd. Qed.
Lemma local_pasp : forall h, local (dec_pasp h). Proof. unfold dec_pasp. locd. Qed.
Lemma local_clap : forall h, local (dec_clap h). Proof. unfold dec_clap. locd. Qed.
Lemma local_schm : forall h, local (dec_schm h). Proof. unfold dec_schm. locd. Qed.
Lemma local_cslg : forall h, local (dec_cslg h). Proof. unfold dec_cslg. locd. Qed.
Lemma local_senc : forall h, local (dec_senc h). Proof. unfold dec_senc. locd. Qed.
Lemma local_emsg : forall h, local (dec_emsg h). Proof. unfold dec_emsg. locd. Qed.
Lemma local_kind : forall h, local (dec_kind h). Proof. unfold dec_kind. locd. Qed.
Lemma local_stsd : forall h, local (dec_stsd h). Proof. unfold dec_stsd. locd. Qed.
Lemma local_dref : forall h, local (dec_dref h). Proof. unfold dec_dref. locd. Qed.

Lemma local_subsample w : local (rd_subsample w). Proof. unfold rd_subsample. loc. Qed.
Lemma progress_subsample v : progress (rd_subsample (subs_w v)).
Proof. unfold subs_w. destruct (v =? 1); intros a H; discriminate H. Qed.
Lemma local_subs_entry v : local (rd_subs_entry (subs_w v)).
Proof. unfold rd_subs_entry. loc; first [apply local_subsample|apply progress_subsample]. Qed.
Lemma progress_subs_entry w : progress (rd_subs_entry w). Proof. intros a H. discriminate H. Qed.
Lemma local_subs : forall h, local (dec_subs h).
Proof. unfold dec_subs. intros h. loc; first [apply local_subs_entry|apply progress_subs_entry|apply progress_subsample|apply local_subsample]. Qed.
Lemma progress_nalu : progress rd_nalu. Proof. intros a H. discriminate H. Qed.
Lemma local_narr : local rd_narr.
Proof. unfold rd_narr. loc; first [apply local_nalu|apply progress_nalu]. Qed.

Lemma local_pairw w : local (rd_pairw w). Proof. unfold rd_pairw. loc. Qed.
Lemma local_uuid : forall h, local (dec_uuid h).
Proof.
  unfold dec_uuid. intros h. apply local_bind; [apply local_rdB|intros u].
  destruct (bytes_eqb u uuid_tfxd); [loc|].
  destruct (bytes_eqb u uuid_tfrf).
  { apply local_bind; [apply local_rd|intros vf]. apply local_bind; [apply local_rd|intros cnt].
    apply local_bind; [apply local_many_const; apply local_pairw|intros es; apply local_pret]. }
  destruct (bytes_eqb u uuid_piff).
  { destruct (h_size h <? 16); [apply local_pfail|].
    apply local_bind; [apply local_senc|intros [l0 rsv0]]. cbn [fst]. destruct l0; first [apply local_pfail|apply local_pret]. }
  destruct (h_size h <? 24); [apply local_pfail|]. loc.
Qed.
