(* C01GenFileProofs.v -- the second generation of whole files that File.Encode does NOT reproduce (a top-level box that is not exact,
   a cut-short mdat after which DecodeFileSR silently stops): as soon as the bytes enc that File.Encode wrote are accepted again by
   DecodeFileSR (box-local AND File-level rules) and no top-level tree has a reason (gen2_file_ok enc, evaluated by the driver on the
   real output), enc is a fixed point of File.Encode, File.EncodeSW and the raw encoder. *)
From V.lib Require Import Base.
From V.c01 Require Import C01Codec C01Model C01TreeProofs C01WhyProofs C01FixProofs C01FileModel C01FileProofs C01GenModel C01GenFileModel.

Lemma why_nil_all ts : flat_map why_box ts = [] -> forallb exact_box ts = true.
Proof. intros H. exact (proj1 (flat_why_nil _ H)). Qed.

Lemma gen2_file_ok_inv enc : gen2_file_ok enc = true ->
  bytes_ok enc = true /\ exists ts2, decode_file_sr enc = FOk ts2 /\ flat_map why_box ts2 = [].
Proof.
  unfold gen2_file_ok, gen2_file. destruct (bytes_ok enc); [|discriminate]. intros H. split; [reflexivity|].
  destruct (decode_file_sr enc) as [ts2| | | |]; try discriminate.
  exists ts2. split; [reflexivity|]. destruct (flat_map why_box ts2); [reflexivity|discriminate].
Qed.

Lemma generation2_file bs ts enc : decode_file_sr bs = FOk ts -> file_encode_w ts = Ok enc -> gen2_file_ok enc = true ->
  exists ts2, decode_file_sr enc = FOk ts2 /\ forallb exact_box ts2 = true /\ map norm_box ts2 = ts2 /\
    file_encode_w ts2 = Ok enc /\ file_encode_sw ts2 = Ok enc /\ encode_seq false ts2 = Ok enc.
Proof.
  intros _ _ Hg. destruct (gen2_file_ok_inv _ Hg) as (Hok & ts2 & Hd & Hy). exists ts2.
  pose proof (why_nil_all _ Hy) as Hex.
  destruct (file_accepted_fixpoint _ _ Hok Hd Hex) as (e & Hw & Hsw & He & _ & Hd2 & _).
  unfold decode_file_sr in Hd. destruct (loop_sound _ _ _ _ Hd (exact_no_trunc _ Hex)) as [Hs _].
  destruct (seq_explained enc ts2 Hok Hs Hy) as [He2 _].
  assert (e = enc) by (rewrite He in He2; now injection He2). subst e.
  fold (decode_file_sr enc) in Hd. rewrite Hd in Hd2. injection Hd2 as Hn.
  repeat split; try assumption; now symmetry.
Qed.
