(* C09BuildStscProofs.v — StscBox.AddEntry / SetSingleSampleDescriptionID as a state machine: after ANY
   history of calls (from an empty box or from a decoded one) the box — FirstSampleNr cache and the
   single/slice representation of the description ids included — is the closed form `stsc_of_table` of the
   table the history describes, which is also what DecodeStscSR builds from that table. *)
From V.lib Require Import Base.
From V.c09 Require Import C09Model C09Spec C09BaseProofs C09SttsProofs C09StscProofs C09CacheProofs C09BuildModel C09BuildCttsProofs.

Lemma last_opt_nil : last_opt [] = None.
Proof. reflexivity. Qed.

Lemma last_opt_cons e es : last_opt (e :: es) = match last_opt es with Some p => Some p | None => Some e end.
Proof.
  unfold last_opt. cbn [rev]. destruct (rev es) as [|p q]; reflexivity.
Qed.

Lemma rev_last_opt es : rev es = match last_opt es with None => [] | Some p => p :: tl (rev es) end.
Proof. unfold last_opt. destruct (rev es); reflexivity. Qed.

Lemma forallb_eq_repeat a l : forallb (N.eqb a) l = true -> l = repeat a (length l).
Proof.
  induction l as [|x t IH]; intros H; [reflexivity|]. cbn [forallb] in H. apply andb_prop in H. destruct H as [H1 H2].
  cbn [length repeat]. f_equal; [lia|apply IH, H2].
Qed.

Lemma forallb_repeat {A} (f : A -> bool) x k : f x = true -> forallb f (repeat x k) = true.
Proof. intros H. induction k as [|k IH]; [reflexivity|]. cbn [repeat forallb]. rewrite H, IH. reflexivity. Qed.

Lemma updN_app_at (l1 : list N) x l2 v : updN (l1 ++ x :: l2) (lenN l1) v = l1 ++ v :: l2.
Proof.
  induction l1 as [|a t IH]; [reflexivity|].
  cbn [app updN]. rewrite lenN_cons. destruct (1 + lenN t =? 0) eqn:E; [lia|].
  replace (1 + lenN t - 1) with (lenN t) by lia. rewrite IH. reflexivity.
Qed.

Definition acc32 (prev : option stsc_entry) (fc : N) : N :=
  match prev with
  | None => 1
  | Some p => u32 (first_sample p + u32 (sub32 fc (first_chunk p) * spc p))
  end.

Definition lastp (prev : option stsc_entry) (es : list stsc_entry) : option stsc_entry :=
  match last_opt es with Some p => Some p | None => prev end.

Lemma entries32_from_snoc raw fc sp sdi : forall prev,
  entries32_from prev (raw ++ [(fc, sp, sdi)]) =
  entries32_from prev raw ++ [mkEntry fc sp (acc32 (lastp prev (entries32_from prev raw)) fc)].
Proof.
  induction raw as [|[[fc1 sp1] sdi1] t IH]; intros prev.
  - reflexivity.
  - cbn [app entries32_from]. rewrite IH. cbn [app]. f_equal. f_equal. f_equal. f_equal.
    unfold lastp. rewrite last_opt_cons. destruct (last_opt _); reflexivity.
Qed.

Lemma length_entries32 raw : forall prev, length (entries32_from prev raw) = length raw.
Proof. induction raw as [|[[fc sp] sdi] t IH]; intros prev; [reflexivity|]. cbn [entries32_from length]. rewrite IH. reflexivity. Qed.

Lemma entries32_map_ids x raw : forall prev,
  entries32_from prev (map (fun r : N * N * N => (fst r, x)) raw) = entries32_from prev raw.
Proof.
  induction raw as [|[[fc sp] sdi] t IH]; intros prev; [reflexivity|].
  cbn [map fst entries32_from]. rewrite IH. reflexivity.
Qed.

Lemma sdis_map_ids x raw : sdis (map (fun r : N * N * N => (fst r, x)) raw) = repeat x (length raw).
Proof. unfold sdis. induction raw as [|r t IH]; [reflexivity|]. cbn [map snd length repeat]. rewrite IH. reflexivity. Qed.

Lemma sdis_snoc raw r : sdis (raw ++ [r]) = sdis raw ++ [snd r].
Proof. unfold sdis. rewrite map_app. reflexivity. Qed.

Lemma forallb_nz_app l1 l2 : forallb nz (l1 ++ l2) = forallb nz l1 && forallb nz l2.
Proof. apply forallb_app. Qed.

(* the id pair while DecodeStscSR is at work, l the ids read so far and k rows still to come: all of l are one
   value, kept in singleSampleDescriptionID, or the slice has been made for all rows, l followed by k zeros.
   With no row to come it is the pair of the finished box. *)
Definition ids_pad (l : list N) (k : nat) : N * list N :=
  match l with
  | [] => (0, [])
  | s :: t => if forallb (N.eqb s) t then (s, []) else (0, l ++ repeat 0 k)
  end.

Lemma ids_pad_0 l : ids_pad l 0 = ids_repr l.
Proof. destruct l as [|s t]; [reflexivity|]. cbn [ids_pad ids_repr repeat]. rewrite app_nil_r. reflexivity. Qed.

Lemma ids_pad_cases l : l <> [] -> forallb nz l = true ->
  (exists a, a <> 0 /\ l = repeat a (length l) /\ (forall k, ids_pad l k = (a, [])) /\
             forall s k, ids_pad (l ++ [s]) k = if s =? a then (a, []) else (0, l ++ s :: repeat 0 k)) \/
  ((forall k, ids_pad l k = (0, l ++ repeat 0 k)) /\ forall s k, ids_pad (l ++ [s]) k = (0, l ++ s :: repeat 0 k)).
Proof.
  intros Hne Hnz. destruct l as [|a t]; [congruence|].
  cbn [forallb] in Hnz. apply andb_prop in Hnz. destruct Hnz as [Ha _]. unfold nz in Ha.
  unfold ids_pad. cbn [app]. destruct (forallb (N.eqb a) t) eqn:E.
  - left. exists a. split; [lia|]. split; [|split; [reflexivity|]].
    + cbn [length repeat]. f_equal. apply forallb_eq_repeat, E.
    + intros s k. rewrite forallb_app, E. cbn [forallb andb]. rewrite (N.eqb_sym a s), <- app_assoc.
      destruct (s =? a); reflexivity.
  - right. split; [reflexivity|]. intros s k. rewrite forallb_app, E, <- app_assoc. reflexivity.
Qed.

Lemma last_opt_Some (es : list stsc_entry) : es <> [] -> exists p, last_opt es = Some p.
Proof.
  intros H. unfold last_opt. destruct (rev es) as [|p q] eqn:E; [|eauto].
  apply (f_equal (@length _)) in E. rewrite rev_length in E. destruct es; [congruence|discriminate].
Qed.

Lemma entries32_nonempty raw prev : raw <> [] -> entries32_from prev raw <> [].
Proof. destruct raw as [|[[fc sp] sdi] t]; [congruence|]. intros _. cbn [entries32_from]. discriminate. Qed.

(* one AddEntry on the box of a non-empty table *)
Lemma add_entry_table raw fc sp sdi : raw <> [] -> forallb nz (sdis raw) = true -> sdi <> 0 ->
  stsc_add_entry (stsc_of_table raw) fc sp sdi = Ok (stsc_of_table (raw ++ [(fc, sp, sdi)])).
Proof.
  intros Hne Hnz Hs.
  unfold stsc_of_table. rewrite entries32_from_snoc, sdis_snoc. cbn [snd].
  unfold stsc_add_entry. destruct (sdi =? 0) eqn:Esdi0; [lia|]. cbn [sc_entries sc_single sc_ids].
  destruct (last_opt_Some (entries32_from None raw) (entries32_nonempty raw None Hne)) as [p Hp].
  rewrite rev_last_opt, Hp. unfold lastp. rewrite Hp. unfold acc32.
  assert (Hne2 : sdis raw <> []) by (unfold sdis; destruct raw; [congruence|discriminate]).
  assert (HL : N.to_nat (lenN (entries32_from None raw)) = length (sdis raw)).
  { unfold lenN, sdis. rewrite Nat2N.id, length_entries32, map_length. reflexivity. }
  rewrite <- !ids_pad_0.
  destruct (ids_pad_cases (sdis raw) Hne2 Hnz) as [[a [Ha [Hrep [Hr Hsn]]]] | [Hr Hsn]]; rewrite Hr, Hsn; cbn [fst snd repeat].
  - destruct (sdi =? a) eqn:E; cbn [negb].
    + reflexivity.
    + destruct (a =? 0) eqn:E0; [lia|]. cbn [negb]. rewrite HL, <- Hrep. reflexivity.
  - destruct (sdi =? 0) eqn:E; [lia|]. cbn [negb N.eqb]. rewrite app_nil_r. reflexivity.
Qed.

(* AddEntry on a box without entries (whatever its single id) *)
Lemma add_entry_first b fc sp sdi : sc_entries b = [] -> sc_ids b = [] -> sdi <> 0 ->
  stsc_add_entry b fc sp sdi = if fc =? 1 then Ok (stsc_of_table [(fc, sp, sdi)]) else Err.
Proof.
  intros He Hi Hs. unfold stsc_add_entry. destruct (sdi =? 0) eqn:Esdi0; [lia|]. rewrite He, Hi. cbn [rev].
  destruct (fc =? 1) eqn:E; cbn [negb]; [|reflexivity].
  unfold stsc_of_table, sdis, ids_repr. cbn. reflexivity.
Qed.

Lemma add_entry_zero b fc sp : stsc_add_entry b fc sp 0 = Err.
Proof. reflexivity. Qed.

(* SetSingleSampleDescriptionID on the box of a non-empty table *)
Lemma set_single_table raw x : raw <> [] -> x <> 0 ->
  stsc_set_single (stsc_of_table raw) x = stsc_of_table (map (fun r : N * N * N => (fst r, x)) raw).
Proof.
  intros Hne Hx. unfold stsc_set_single. destruct (x =? 0) eqn:Ex0; [lia|]. unfold stsc_of_table. cbn [sc_entries].
  rewrite entries32_map_ids, sdis_map_ids.
  destruct raw as [|r t]; [congruence|]. cbn [length repeat]. unfold ids_repr.
  rewrite (forallb_repeat _ _ _ (N.eqb_refl _)). reflexivity.
Qed.

Definition binv (b : stsc_box) (raw : list (N * N * N)) : Prop :=
  forallb nz (sdis raw) = true /\
  ((raw = [] /\ sc_entries b = [] /\ sc_ids b = []) \/ (raw <> [] /\ b = stsc_of_table raw)).

Lemma binv_step b raw c : binv b raw -> binv (stsc_step b c) (stsc_table_step raw c).
Proof.
  intros [Hnz [[-> [He Hi]] | [Hne ->]]].
  - destruct c as [fc sp sdi | x]; unfold stsc_step, stsc_call_res, stsc_table_step.
    + destruct (sdi =? 0) eqn:E0.
      * apply N.eqb_eq in E0. subst sdi. rewrite add_entry_zero. split; [reflexivity|]. left. auto.
      * rewrite (add_entry_first b fc sp sdi He Hi) by lia. destruct (fc =? 1).
        -- split; [cbn; unfold nz; rewrite E0; reflexivity|]. right. split; [discriminate|reflexivity].
        -- split; [reflexivity|]. left. auto.
    + split; [destruct (x =? 0); reflexivity|]. left. unfold stsc_set_single.
      destruct (x =? 0); cbn [map sc_entries sc_ids]; auto.
  - destruct c as [fc sp sdi | x]; unfold stsc_step, stsc_call_res, stsc_table_step.
    + destruct (sdi =? 0) eqn:E0.
      * apply N.eqb_eq in E0. subst sdi. rewrite add_entry_zero. split; [exact Hnz|]. right. split; [exact Hne|reflexivity].
      * rewrite (add_entry_table raw fc sp sdi Hne Hnz) by lia.
        replace (match raw with [] => if fc =? 1 then [(fc, sp, sdi)] else [] | _ :: _ => raw ++ [(fc, sp, sdi)] end)
          with (raw ++ [(fc, sp, sdi)]) by (destruct raw; [congruence|reflexivity]).
        split.
        -- rewrite sdis_snoc, forallb_app, Hnz. cbn [snd forallb]. unfold nz. rewrite E0. reflexivity.
        -- right. split; [destruct raw; discriminate|reflexivity].
    + destruct (x =? 0) eqn:E0.
      * unfold stsc_set_single. rewrite E0. split; [exact Hnz|]. right. split; [exact Hne|reflexivity].
      * rewrite set_single_table by (try exact Hne; lia). split.
        -- rewrite sdis_map_ids. apply forallb_repeat. unfold nz. rewrite E0. reflexivity.
        -- right. split; [destruct raw; [congruence|discriminate]|reflexivity].
Qed.

Lemma binv_run calls : forall b raw, binv b raw -> binv (stsc_run b calls) (stsc_table raw calls).
Proof.
  induction calls as [|c t IH]; intros b raw Hb; [exact Hb|].
  unfold stsc_run, stsc_table in *. cbn [fold_left]. apply IH. apply binv_step; assumption.
Qed.

Lemma binv_table raw : forallb nz (sdis raw) = true -> binv (stsc_of_table raw) raw.
Proof.
  intros H. split; [exact H|]. destruct raw as [|r t].
  - left. repeat split.
  - right. split; [discriminate|reflexivity].
Qed.

(* the loop state after the rows p, with k rows to come *)
Definition dec_state (p : list (N * N * N)) (k : nat) : list stsc_entry * N * N * list N :=
  (entries32_from None p,
   match last_opt (entries32_from None p) with None => 1 | Some e => first_sample e end,
   fst (ids_pad (sdis p) k), snd (ids_pad (sdis p) k)).

Lemma decode_step_closed p fc sp sdi k n : forallb nz (sdis p) = true -> sdi <> 0 ->
  n = lenN p + 1 + N.of_nat k ->
  stsc_decode_step n (dec_state p (S k)) (lenN p) (fc, sp, sdi) = Ok (dec_state (p ++ [(fc, sp, sdi)]) k).
Proof.
  intros Hp Hs Hn. unfold dec_state, stsc_decode_step.
  rewrite entries32_from_snoc, last_opt_snoc, sdis_snoc. cbn [snd first_sample].
  replace (match rev (entries32_from None p) with
           | [] => match last_opt (entries32_from None p) with None => 1 | Some e => first_sample e end
           | pe :: _ => u32 (match last_opt (entries32_from None p) with None => 1 | Some e => first_sample e end
                             + u32 (sub32 fc (first_chunk pe) * spc pe))
           end) with (acc32 (lastp None (entries32_from None p)) fc)
    by (unfold lastp, acc32, last_opt; destruct (rev (entries32_from None p)); reflexivity).
  destruct (sdi =? 0) eqn:Es; [lia|].
  destruct p as [|r p']; [reflexivity|]. set (p := r :: p') in *.
  assert (Hl : lenN (sdis p) = lenN p) by apply lenN_map.
  destruct (lenN p =? 0) eqn:Ei; [unfold p in Ei; rewrite lenN_cons in Ei; lia|].
  destruct (ids_pad_cases (sdis p) ltac:(discriminate) Hp) as [[a [Ha [Hrep [Hr Hsn]]]] | [Hr Hsn]];
    rewrite Hr, Hsn; cbn [fst snd].
  - (* one value so far *)
    destruct (sdi =? a) eqn:Ea; cbn [negb]; [reflexivity|].
    destruct (a =? 0) eqn:E0; [lia|]. cbn [negb].
    replace (N.to_nat (n - lenN p)) with (S k) by lia.
    replace (repeat a (N.to_nat (lenN p))) with (sdis p) by (rewrite <- Hl; unfold lenN; rewrite Nat2N.id; exact Hrep).
    cbn [repeat].
    replace (lenN (sdis p ++ 0 :: repeat 0 k) <=? lenN p) with false by (rewrite lenN_app, lenN_cons; lia).
    rewrite <- Hl, updN_app_at. reflexivity.
  - (* the slice is in use *)
    rewrite Es. cbn [negb N.eqb repeat].
    replace (lenN (sdis p ++ 0 :: repeat 0 k) <=? lenN p) with false by (rewrite lenN_app, lenN_cons; lia).
    rewrite <- Hl, updN_app_at. reflexivity.
Qed.

Lemma decode_loop_closed q : forall p n, forallb nz (sdis p) = true -> forallb nz (sdis q) = true ->
  n = lenN p + lenN q ->
  stsc_decode_loop n (dec_state p (length q)) (lenN p) q = Ok (dec_state (p ++ q) 0).
Proof.
  induction q as [|[[fc sp] sdi] t IH]; intros p n Hp Hq Hn; [rewrite app_nil_r; reflexivity|].
  change (sdis ((fc, sp, sdi) :: t)) with (sdi :: sdis t) in Hq. cbn [forallb] in Hq.
  apply andb_prop in Hq. destruct Hq as [Hs Hq]. rewrite lenN_cons in Hn.
  cbn [stsc_decode_loop length].
  rewrite decode_step_closed by (try assumption; unfold nz, lenN in *; lia). cbn [rbind].
  replace (lenN p + 1) with (lenN (p ++ [(fc, sp, sdi)])) by (rewrite lenN_app, lenN_cons, lenN_nil; lia).
  rewrite IH, <- app_assoc; [reflexivity| |exact Hq|rewrite lenN_app, lenN_cons, lenN_nil; lia].
  rewrite sdis_snoc, forallb_app, Hp. cbn [snd forallb]. rewrite Hs. reflexivity.
Qed.

Lemma decode_table raw : forallb nz (sdis raw) = true -> stsc_decode raw = Ok (stsc_of_table raw).
Proof.
  intros H. unfold stsc_decode.
  rewrite (decode_loop_closed raw [] (lenN raw) eq_refl H eq_refl
           : stsc_decode_loop (lenN raw) ([], 1, 0, []) 0 raw = Ok (dec_state raw 0)).
  unfold dec_state. rewrite ids_pad_0. reflexivity.
Qed.

Lemma stsc_of_table_nil : stsc_of_table [] = stsc_empty.
Proof. reflexivity. Qed.

(* DecodeStscSR succeeds only on non-zero ids *)
Lemma decode_step_ok_nz n st i r st' : stsc_decode_step n st i r = Ok st' -> nz (snd r) = true.
Proof.
  destruct st as [[[es acc] single] ids]. destruct r as [[fc sp] sdi].
  unfold stsc_decode_step. cbv beta iota. cbn [snd]. unfold nz.
  destruct (sdi =? 0); [intros H; cbn in H; discriminate|intros _; reflexivity].
Qed.

Lemma decode_loop_ok_nz raw : forall n st i st', stsc_decode_loop n st i raw = Ok st' -> forallb nz (sdis raw) = true.
Proof.
  induction raw as [|r t IH]; intros n st i st' H; [reflexivity|].
  cbn [stsc_decode_loop] in H. destruct (stsc_decode_step n st i r) as [st1| | |] eqn:E; cbn [rbind] in H; try discriminate.
  change (sdis (r :: t)) with (snd r :: sdis t). cbn [forallb].
  rewrite (decode_step_ok_nz _ _ _ _ _ E), (IH _ _ _ _ H). reflexivity.
Qed.

Lemma decode_ok_nz raw b : stsc_decode raw = Ok b -> forallb nz (sdis raw) = true.
Proof.
  unfold stsc_decode. intros H.
  destruct (stsc_decode_loop (lenN raw) ([], 1, 0, []) 0 raw) as [st| | |] eqn:E; cbn [rbind] in H; try discriminate.
  exact (decode_loop_ok_nz _ _ _ _ _ E).
Qed.

Lemma decode_ok_table raw b : stsc_decode raw = Ok b -> b = stsc_of_table raw.
Proof.
  intros H. pose proof (decode_table raw (decode_ok_nz raw b H)) as H2. congruence.
Qed.

Lemma builder_stsc : forall raw0 b0 calls,
  stsc_decode raw0 = Ok b0 -> stsc_table raw0 calls <> [] ->
  b0 = stsc_of_table raw0 /\
  stsc_run b0 calls = stsc_of_table (stsc_table raw0 calls) /\
  stsc_decode (stsc_table raw0 calls) = Ok (stsc_of_table (stsc_table raw0 calls)).
Proof.
  intros raw0 b0 calls H0 Hne. pose proof (decode_ok_table raw0 b0 H0) as ->.
  destruct (binv_run calls _ _ (binv_table raw0 (decode_ok_nz _ _ H0))) as [Hnz [[E _] | [_ Hr]]]; [congruence|].
  split; [reflexivity|]. split; [exact Hr|apply decode_table, Hnz].
Qed.

(* the FirstSampleNr cache without wrap-around: the naive recurrence, and its sum form *)
Lemma entries32_S raw : forall prev, raw_ok_from prev raw = true -> entries32_from prev raw = S_entries_from prev raw.
Proof.
  induction raw as [|[[fc sp] sdi] t IH]; intros prev H; [reflexivity|].
  cbn [raw_ok_from] in H. repeat (apply andb_prop in H; destruct H as [H ?]). unfold is_u32 in *.
  cbn [entries32_from S_entries_from].
  assert (E : match prev with None => 1 | Some p => u32 (first_sample p + u32 (sub32 fc (first_chunk p) * spc p)) end =
              match prev with None => 1 | Some p => first_sample p + (fc - first_chunk p) * spc p end).
  { destruct prev as [p|]; [|reflexivity]. rewrite sub32_small by lia.
    rewrite (u32_small ((fc - first_chunk p) * spc p)) by lia. apply u32_small. lia. }
  rewrite E. f_equal. apply IH. assumption.
Qed.

Lemma raw_ok_nz raw : forall prev, raw_ok_from prev raw = true -> forallb nz (sdis raw) = true.
Proof.
  induction raw as [|[[fc sp] sdi] t IH]; intros prev H; [reflexivity|].
  cbn [raw_ok_from] in H. repeat (apply andb_prop in H; destruct H as [H ?]).
  change (sdis ((fc, sp, sdi) :: t)) with (sdi :: sdis t). cbn [forallb]. unfold nz at 1.
  rewrite (IH _ ltac:(eassumption)). destruct (sdi =? 0); [discriminate|reflexivity].
Qed.

Lemma run_samples_ids fc sp a b t : run_samples ((fc, sp, a) :: t) = run_samples ((fc, sp, b) :: t).
Proof. reflexivity. Qed.

Lemma S_entries_from_sum raw : forall p i e, nth_error (S_entries_from (Some p) raw) i = Some e ->
  first_sample e = first_sample p + sumN (firstn (S i) (run_samples ((first_chunk p, spc p, 0) :: raw))).
Proof.
  induction raw as [|[[fc sp] sdi] t IH]; intros p i e H; [destruct i; discriminate|].
  cbn [S_entries_from] in H. destruct i as [|j].
  - cbn [nth_error] in H. injection H as <-. cbn [first_sample run_samples firstn]. destruct t as [|[[? ?] ?] ?]; cbn [firstn sumN]; lia.
  - cbn [nth_error] in H. apply IH in H. cbn [first_sample first_chunk spc] in H. rewrite H.
    change (run_samples ((first_chunk p, spc p, 0) :: (fc, sp, sdi) :: t))
      with ((fc - first_chunk p) * spc p :: run_samples ((fc, sp, sdi) :: t)).
    rewrite (run_samples_ids fc sp sdi 0). cbn [firstn sumN]. lia.
Qed.

(* FirstSampleNr[i] = 1 + the samples held by the runs before i *)
Lemma first_sample_sum raw : forall i e, nth_error (S_entries raw) i = Some e ->
  first_sample e = 1 + sumN (firstn i (run_samples raw)).
Proof.
  intros i e H. unfold S_entries in H. destruct raw as [|[[fc sp] sdi] t]; [destruct i; discriminate|].
  cbn [S_entries_from] in H. destruct i as [|j].
  - cbn [nth_error] in H. injection H as <-. reflexivity.
  - cbn [nth_error] in H. apply S_entries_from_sum in H. cbn [first_sample first_chunk spc] in H.
    rewrite H. rewrite (run_samples_ids fc sp 0 sdi). reflexivity.
Qed.

Lemma stsc_cache : forall raw, raw_ok raw = true ->
  sc_entries (stsc_of_table raw) = S_entries raw /\
  forall i e, nth_error (sc_entries (stsc_of_table raw)) i = Some e ->
              first_sample e = 1 + sumN (firstn i (run_samples raw)).
Proof.
  intros raw H. unfold raw_ok in H. apply andb_prop in H. destruct H as [H _].
  assert (E : sc_entries (stsc_of_table raw) = S_entries raw) by (apply entries32_S, H).
  split; [exact E|]. rewrite E. apply first_sample_sum.
Qed.

(* repeated AddEntry of rows with proper ids on the box of a non-empty table *)
Lemma add_entries_table q : forall p, p <> [] -> forallb nz (sdis p) = true -> forallb nz (sdis q) = true ->
  stsc_add_entries (stsc_of_table p) q = Ok (stsc_of_table (p ++ q)).
Proof.
  induction q as [|[[fc sp] sdi] t IH]; intros p Hne Hp Hq; [rewrite app_nil_r; reflexivity|].
  change (sdis ((fc, sp, sdi) :: t)) with (sdi :: sdis t) in Hq. cbn [forallb] in Hq.
  apply andb_prop in Hq. destruct Hq as [Hs Hq].
  cbn [stsc_add_entries]. rewrite add_entry_table by (try assumption; unfold nz in Hs; lia). cbn [rbind].
  rewrite IH, <- app_assoc; [reflexivity|destruct p; discriminate| |exact Hq].
  rewrite sdis_snoc, forallb_app, Hp. cbn [snd forallb]. rewrite Hs. reflexivity.
Qed.

(* StscEntry.FirstSampleNr as computed by DecodeStscSR and by repeated AddEntry: both build the closed form *)
Lemma first_sample_nr_cache : forall raw, raw_ok raw = true ->
  (exists b, stsc_decode raw = Ok b /\ sc_entries b = S_entries raw) /\
  (match raw with [] => True | (fc, _, _) :: _ => fc = 1 end ->
   exists b, stsc_add_entries (mkStsc [] 0 []) raw = Ok b /\ sc_entries b = S_entries raw).
Proof.
  intros raw H. destruct (stsc_cache raw H) as [E _].
  unfold raw_ok in H. apply andb_prop in H. destruct H as [H _]. pose proof (raw_ok_nz raw None H) as Hnz.
  split.
  - exists (stsc_of_table raw). split; [apply decode_table, Hnz|exact E].
  - intros H1. exists (stsc_of_table raw). split; [|exact E].
    destruct raw as [|[[fc sp] sdi] t]; [reflexivity|]. subst fc.
    change (sdis ((1, sp, sdi) :: t)) with (sdi :: sdis t) in Hnz. cbn [forallb] in Hnz.
    apply andb_prop in Hnz. destruct Hnz as [Hs Hq].
    (* the first AddEntry makes the box of the one-row table, the others append to it *)
    cbn [stsc_add_entries]. rewrite add_entry_first by (try reflexivity; unfold nz in Hs; lia).
    cbn [N.eqb Pos.eqb rbind].
    apply (add_entries_table t [(1, sp, sdi)]); [discriminate| |exact Hq].
    cbn [sdis map snd forallb]. rewrite Hs. reflexivity.
Qed.

(* a box built by any history is a consistent stsc state for its table *)
Lemma rows_entries_ok raw C : forall prev, rows_ok raw C = true -> entries_ok (S_entries_from prev raw) C = true.
Proof.
  induction raw as [|[[fc sp] sdi] t IH]; intros prev H; [reflexivity|].
  cbn [rows_ok] in H. apply andb_prop in H. destruct H as [H1 H2].
  destruct t as [|[[fc' sp'] sdi'] t'].
  - cbn [S_entries_from entries_ok spc first_chunk]. rewrite H1, H2. reflexivity.
  - apply andb_prop in H2. destruct H2 as [H2 H3].
    specialize (IH (Some (mkEntry fc sp match prev with None => 1 | Some p => first_sample p + (fc - first_chunk p) * spc p end)) H3).
    cbn [S_entries_from] in IH |- *. cbn [entries_ok spc first_chunk first_sample].
    cbn [entries_ok spc first_chunk first_sample] in IH.
    rewrite H1, H2, N.eqb_refl. cbn [andb]. exact IH.
Qed.

Lemma table_stsc_ok : forall tb tbl,
  t_stsc tb = stsc_of_table tbl ->
  raw_ok tbl = true -> rows_ok tbl (nchunks tb) = true ->
  match tbl with (fc, _, _) :: _ => fc = 1 | [] => False end ->
  sumN (chunk_counts (S_entries tbl) (nchunks tb)) = nsamples tb ->
  stsc_ok tb = true.
Proof.
  intros tb tbl Hb Hraw Hrows H1 Hsum.
  pose proof Hraw as Hraw'. unfold raw_ok in Hraw'. apply andb_prop in Hraw'. destruct Hraw' as [Hraw' _].
  pose proof (entries32_S tbl None Hraw') as HE.
  pose proof (raw_ok_nz tbl None Hraw') as Hnz.
  unfold stsc_ok, counts_of. rewrite Hb. unfold stsc_of_table at 1 2 3. cbn [sc_entries]. rewrite HE.
  fold (S_entries tbl). rewrite Hsum, N.eqb_refl.
  unfold S_entries. rewrite (rows_entries_ok tbl (nchunks tb) None Hrows).
  destruct tbl as [|[[fc sp] sdi] t]; [contradiction|]. subst fc.
  cbn [S_entries S_entries_from first_chunk first_sample N.eqb Pos.eqb andb].
  cbn [raw_ok_from] in Hraw'. repeat (apply andb_prop in Hraw'; destruct Hraw' as [Hraw' ?]).
  unfold stsc_of_table. cbn [sc_single sc_ids]. change (sdis ((1, sp, sdi) :: t)) with (sdi :: sdis t) in *.
  unfold ids_repr. destruct (forallb (N.eqb sdi) (sdis t)) eqn:Ef; cbn [fst snd].
  - destruct (sdi =? 0) eqn:E0; [discriminate|]. cbn [lenN length forallb andb N.of_nat N.eqb].
    assumption.
  - cbn [N.eqb]. change (forallb (fun x => negb (x =? 0)) (sdi :: sdis t)) with (forallb nz (sdi :: sdis t)).
    rewrite Hnz. cbn [andb is_u32].
    cbn [sc_entries].
    replace (lenN (sdi :: sdis t) =? lenN (entries32_from None ((1, sp, sdi) :: t))) with true; [reflexivity|].
    symmetry. apply N.eqb_eq. unfold lenN. rewrite length_entries32. unfold sdis. cbn [length]. rewrite map_length. reflexivity.
Qed.

(* table boxes built by ANY histories make a consistent table set: every query theorem applies *)
Lemma builder_consistent : forall tb craw0 ccalls sraw0 sb0 scalls,
  is_u32 (nsamples tb + 1) = true -> stts_ok tb = true -> stsz_ok tb = true -> offsets_ok tb = true ->
  stss_ok tb = true -> sdtp_ok tb = true ->
  (t_ctts tb = None \/
   (t_ctts tb = Some (ctts_run (ctts_decode craw0) ccalls) /\
    sumN (map fst (craw0 ++ ctts_table ccalls)) = nsamples tb)) ->
  stsc_decode sraw0 = Ok sb0 ->
  t_stsc tb = stsc_run sb0 scalls ->
  raw_ok (stsc_table sraw0 scalls) = true -> rows_ok (stsc_table sraw0 scalls) (nchunks tb) = true ->
  match stsc_table sraw0 scalls with (fc, _, _) :: _ => fc = 1 | [] => False end ->
  sumN (chunk_counts (S_entries (stsc_table sraw0 scalls)) (nchunks tb)) = nsamples tb ->
  consistent tb = true.
Proof.
  intros tb craw0 ccalls sraw0 sb0 scalls Hu Htt Hsz Hof Hss Hsd Hct H0 Hb Hraw Hrows H1 Hsum.
  assert (Hne : stsc_table sraw0 scalls <> []) by (destruct (stsc_table sraw0 scalls); [contradiction|discriminate]).
  destruct (builder_stsc sraw0 sb0 scalls H0 Hne) as [_ [Hr _]]. rewrite Hr in Hb.
  unfold consistent. rewrite Hu, Htt, Hsz, Hof, Hss, Hsd, (table_stsc_ok tb _ Hb Hraw Hrows H1 Hsum).
  replace (ctts_ok tb) with true; [reflexivity|]. symmetry.
  destruct Hct as [E | [E Es]].
  - unfold ctts_ok. rewrite E. reflexivity.
  - apply (builder_ctts_ok tb craw0 ccalls E Es Hu).
Qed.
