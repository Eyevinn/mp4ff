(* C09BuildCttsProofs.v — CttsBox.AddSampleCountsAndOffset as a state machine: after ANY history of calls
   (from an empty box or from a decoded one) the box, EndSampleNr cache included, is the box DecodeCttsSR
   builds from the concatenated table; EndSampleNr[i] = sum of the first i counts (uint32); without
   overflow such a box satisfies the ctts part of `consistent`, so the query theorem applies. *)
From V.lib Require Import Base.
From V.c09 Require Import C09Model C09Spec C09BaseProofs C09SttsProofs C09CttsProofs C09BuildModel.

Lemma ctts_ends_app l1 : forall acc l2,
  ctts_ends acc (l1 ++ l2) = ctts_ends acc l1 ++ ctts_ends (last (ctts_ends acc l1) acc) l2.
Proof.
  induction l1 as [|c t IH]; intros acc l2; [reflexivity|].
  cbn [app ctts_ends]. rewrite IH. rewrite last_cons. reflexivity.
Qed.

Lemma map_fst_combine' {A B} (l1 : list A) : forall (l2 : list B), length l1 = length l2 -> map fst (combine l1 l2) = l1.
Proof. induction l1 as [|a t IH]; intros [|b t2] H; try discriminate; [reflexivity|]. cbn. f_equal. apply IH. cbn in H. lia. Qed.

Lemma map_snd_combine' {A B} (l1 : list A) : forall (l2 : list B), length l1 = length l2 -> map snd (combine l1 l2) = l2.
Proof. induction l1 as [|a t IH]; intros [|b t2] H; try discriminate; [reflexivity|]. cbn. f_equal. apply IH. cbn in H. lia. Qed.

Lemma lenN_eq_length {A B} (l1 : list A) (l2 : list B) : (lenN l1 =? lenN l2) = true -> length l1 = length l2.
Proof. unfold lenN. intros H. lia. Qed.

(* one accepted call on a decoded box *)
Lemma ctts_add_decode raw cs os : (lenN cs =? lenN os) = true ->
  ctts_add (ctts_decode raw) cs os = Ok (ctts_decode (raw ++ combine cs os)).
Proof.
  intros H. unfold ctts_add. rewrite H. cbn [negb]. unfold ctts_decode. cbn [ct_end ct_off].
  pose proof (lenN_eq_length _ _ H) as HL.
  rewrite !map_app, (map_fst_combine' _ _ HL), (map_snd_combine' _ _ HL).
  rewrite ctts_ends_app. rewrite last_cons. reflexivity.
Qed.

(* one accepted call on `&CttsBox{}` *)
Lemma ctts_add_empty cs os : (lenN cs =? lenN os) = true ->
  ctts_add ctts_empty cs os = Ok (ctts_decode (combine cs os)).
Proof.
  intros H. unfold ctts_add, ctts_empty. rewrite H. cbn [negb ct_end ct_off last app]. unfold ctts_decode.
  pose proof (lenN_eq_length _ _ H) as HL.
  rewrite (map_fst_combine' _ _ HL), (map_snd_combine' _ _ HL). reflexivity.
Qed.

Lemma ctts_add_refused b cs os : (lenN cs =? lenN os) = false -> ctts_add b cs os = Err.
Proof. intros H. unfold ctts_add. rewrite H. reflexivity. Qed.

Lemma ctts_step_decode raw c : ctts_step (ctts_decode raw) c = ctts_decode (raw ++ ctts_call_table c).
Proof.
  unfold ctts_step, ctts_call_table, ctts_call_ok. destruct (lenN (fst c) =? lenN (snd c)) eqn:E.
  - rewrite ctts_add_decode by exact E. reflexivity.
  - rewrite ctts_add_refused by exact E. rewrite app_nil_r. reflexivity.
Qed.

(* ALL histories, from a decoded box *)
Lemma ctts_run_decode calls : forall raw0,
  ctts_run (ctts_decode raw0) calls = ctts_decode (raw0 ++ ctts_table calls).
Proof.
  induction calls as [|c t IH]; intros raw0.
  - cbn. rewrite app_nil_r. reflexivity.
  - unfold ctts_run in *. cbn [fold_left]. rewrite ctts_step_decode, IH.
    unfold ctts_table. cbn [flat_map]. rewrite app_assoc. reflexivity.
Qed.

(* ALL histories, from the empty box: as soon as one call has been accepted *)
Lemma ctts_run_empty calls : existsb ctts_call_ok calls = true ->
  ctts_run ctts_empty calls = ctts_decode (ctts_table calls).
Proof.
  induction calls as [|c t IH]; intros H; [discriminate|].
  cbn [existsb] in H. unfold ctts_run in *. cbn [fold_left]. unfold ctts_table. cbn [flat_map].
  unfold ctts_step at 2. unfold ctts_call_table. unfold ctts_call_ok in *.
  destruct (lenN (fst c) =? lenN (snd c)) eqn:E.
  - rewrite ctts_add_empty by exact E. apply ctts_run_decode.
  - rewrite ctts_add_refused by exact E. cbn [app]. apply IH. exact H.
Qed.

Lemma builder_ctts : forall raw0 calls,
  ctts_run (ctts_decode raw0) calls = ctts_decode (raw0 ++ ctts_table calls) /\
  (existsb ctts_call_ok calls = true -> ctts_run ctts_empty calls = ctts_decode (ctts_table calls)).
Proof. intros. split; [apply ctts_run_decode|apply ctts_run_empty]. Qed.

Lemma u32_add_idemp a b : u32 (u32 a + b) = u32 (a + b).
Proof. unfold u32. apply N.add_mod_idemp_l. discriminate. Qed.

Lemma ctts_ends_closed cs : forall acc,
  ctts_ends acc cs = map (fun k => u32 (acc + sumN (firstn k cs))) (seq 1 (length cs)).
Proof.
  induction cs as [|c t IH]; intros acc; [reflexivity|].
  cbn [ctts_ends length seq map]. f_equal.
  - cbn [firstn sumN]. f_equal. lia.
  - rewrite IH. rewrite <- (seq_shift (length t) 1), map_map. apply map_ext. intros k.
    cbn [firstn sumN]. rewrite u32_add_idemp. f_equal. lia.
Qed.

Lemma ctts_cache raw : forall i, (i <= length raw)%nat ->
  nth_error (ct_end (ctts_decode raw)) i = Some (u32 (sumN (firstn i (map fst raw)))) /\
  length (ct_end (ctts_decode raw)) = S (length raw) /\ ct_off (ctts_decode raw) = map snd raw.
Proof.
  intros i Hi. unfold ctts_decode. cbn [ct_end ct_off]. rewrite ctts_ends_closed.
  split; [|split; [cbn [length]; rewrite map_length, seq_length, map_length; reflexivity|reflexivity]].
  destruct i as [|j]; [reflexivity|]. cbn [nth_error].
  rewrite map_length.
  erewrite map_nth_error; [reflexivity|].
  rewrite (nth_error_nth' _ 0%nat) by (rewrite seq_length; lia). rewrite seq_nth by lia. reflexivity.
Qed.

Lemma ctts_ends_props cs : forall acc d, acc + sumN cs < 4294967296 ->
  sorted_le (acc :: ctts_ends acc cs) = true /\ last (acc :: ctts_ends acc cs) d = acc + sumN cs /\
  diffs (acc :: ctts_ends acc cs) = cs.
Proof.
  induction cs as [|c t IH]; intros acc d H.
  - cbn. repeat split. lia.
  - cbn [sumN] in H. cbn [ctts_ends]. rewrite (u32_small (acc + c)) by lia.
    destruct (IH (acc + c) d ltac:(lia)) as [S1 [L1 D1]].
    split; [|split].
    + change (((acc <=? acc + c) && sorted_le (acc + c :: ctts_ends (acc + c) t)) = true). rewrite S1.
      destruct (acc <=? acc + c) eqn:E; [reflexivity|lia].
    + change (last (acc + c :: ctts_ends (acc + c) t) d = acc + sumN (c :: t)). rewrite L1. cbn [sumN]. lia.
    + change ((acc + c - acc) :: diffs (acc + c :: ctts_ends (acc + c) t) = c :: t). rewrite D1. f_equal. lia.
Qed.

Lemma ctts_decode_ok raw : sumN (map fst raw) < 4294967296 ->
  let c := ctts_decode raw in
  lenN (ct_end c) = lenN (ct_off c) + 1 /\ hd 1 (ct_end c) = 0 /\ sorted_le (ct_end c) = true /\
  last (ct_end c) 0 = sumN (map fst raw) /\ ctos_of c = expand_rl (map fst raw) (map snd raw).
Proof.
  intros H c. unfold c, ctts_decode, ctos_of. cbn [ct_end ct_off hd].
  destruct (ctts_ends_props (map fst raw) 0 0 ltac:(lia)) as [S1 [L1 D1]].
  rewrite S1, L1, D1. repeat split.
  rewrite lenN_cons. rewrite ctts_ends_closed. unfold lenN. rewrite !map_length, seq_length. lia.
Qed.

(* GetCompositionTimeOffset on a box built by ANY history = the expansion of the concatenated table *)
Lemma builder_ctts_query : forall raw0 calls,
  let raw := raw0 ++ ctts_table calls in
  sumN (map fst raw) < 4294967296 -> forall n, 1 <= n <= sumN (map fst raw) ->
  exists x, nthN (expand_rl (map fst raw) (map snd raw)) (n - 1) = Some x /\
            ctts_get_cto (ctts_run (ctts_decode raw0) calls) n = Ok x.
Proof.
  intros raw0 calls raw H n Hn. rewrite ctts_run_decode. fold raw.
  destruct (ctts_decode_ok raw H) as [A [B [C [D E]]]].
  destruct (cto_correct_box (ctts_decode raw) (sumN (map fst raw)) A B C D n Hn) as [x [X1 X2]].
  exists x. split; [|exact X2]. unfold S_cto in X1. destruct (n =? 0) eqn:E0; [lia|].
  rewrite E in X1. exact X1.
Qed.

(* ... and it is a consistent ctts state for the table set it is put into *)
Lemma builder_ctts_ok : forall tb raw0 calls,
  t_ctts tb = Some (ctts_run (ctts_decode raw0) calls) ->
  sumN (map fst (raw0 ++ ctts_table calls)) = nsamples tb -> is_u32 (nsamples tb + 1) = true ->
  ctts_ok tb = true.
Proof.
  intros tb raw0 calls Hc Hs Hu. unfold ctts_ok. rewrite Hc, ctts_run_decode. unfold is_u32 in Hu.
  destruct (ctts_decode_ok (raw0 ++ ctts_table calls) ltac:(lia)) as [A [B [C [D _]]]].
  rewrite A, B, C, D, Hs. rewrite !N.eqb_refl. reflexivity.
Qed.
