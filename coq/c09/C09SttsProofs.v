(* C09SttsProofs.v — stts (decode time, duration) on the bare columns and on consistent tables; stsz (size, total size). *)
From V.lib Require Import Base.
From V.c09 Require Import C09Model C09Spec C09BaseProofs.

Lemma consistent_parts tb : consistent tb = true ->
  is_u32 (nsamples tb + 1) = true /\ stts_ok tb = true /\ ctts_ok tb = true /\ stsc_ok tb = true /\
  stsz_ok tb = true /\ offsets_ok tb = true /\ stss_ok tb = true /\ sdtp_ok tb = true.
Proof. unfold consistent. intros H. repeat (apply andb_prop in H; destruct H as [H ?]). tauto. Qed.

Lemma starts_app l1 l2 acc : starts (l1 ++ l2) acc = starts l1 acc ++ starts l2 (acc + sumN l1).
Proof.
  revert acc; induction l1 as [|x t IH]; intros acc; cbn [app starts sumN].
  - rewrite N.add_0_r. reflexivity.
  - rewrite IH, N.add_assoc. reflexivity.
Qed.

Lemma lenN_starts l acc : lenN (starts l acc) = lenN l.
Proof. revert acc; induction l as [|x t IH]; intros acc; cbn [starts]; [reflexivity|]. rewrite !lenN_cons, IH. reflexivity. Qed.

Lemma nthN_starts_repeat d k acc j :
  nthN (starts (repeat d k) acc) j = if j <? N.of_nat k then Some (acc + j * d) else None.
Proof.
  revert acc j; induction k as [|k IH]; intros acc j; cbn [repeat starts nthN].
  - destruct (j <? N.of_nat 0) eqn:E; [lia|reflexivity].
  - destruct (j =? 0) eqn:E0.
    + destruct (j <? N.of_nat (S k)) eqn:E; [|lia]. f_equal. nia.
    + rewrite IH. destruct (j - 1 <? N.of_nat k) eqn:E1, (j <? N.of_nat (S k)) eqn:E2; try reflexivity; try lia.
      f_equal. nia.
Qed.

Lemma sumN_expand_cons c cs (d : N) ds : sumN (expand_rl (c :: cs) (d :: ds)) = c * d + sumN (expand_rl cs ds).
Proof. cbn [expand_rl]. rewrite sumN_app, sumN_repeat. lia. Qed.

Lemma sumN_expand_bound cs ds : forallb is_u32 ds = true ->
  sumN (expand_rl cs ds) <= sumN cs * 4294967295.
Proof.
  revert ds; induction cs as [|c cs IH]; intros ds H; [cbn; lia|].
  destruct ds as [|d ds]; [cbn [expand_rl sumN]; lia|].
  cbn [forallb] in H. apply andb_prop in H. destruct H as [Hd H]. unfold is_u32 in Hd.
  rewrite sumN_expand_cons. cbn [sumN]. specialize (IH ds H). nia.
Qed.

Lemma lenN_expand cs {A} (vs : list A) : lenN cs = lenN vs -> lenN (expand_rl cs vs) = sumN cs.
Proof.
  revert vs; induction cs as [|c cs IH]; intros vs H; [reflexivity|].
  destruct vs as [|v vs]; [rewrite lenN_cons, lenN_nil in H; lia|].
  cbn [expand_rl sumN]. rewrite lenN_app, lenN_repeat, IH; [lia|]. rewrite !lenN_cons in H. lia.
Qed.

(* No hypothesis on the total duration: the time of sample number rem + 1 is the sum of rem durations of less than
   2^32 ticks each, and rem is a uint32 where the loop is entered, so the uint64 accumulator does not wrap. *)
Lemma decode_time_loop_ok cs : forall ds rem acc,
  lenN cs = lenN ds -> rem < sumN cs -> forallb is_u32 ds = true ->
  acc + rem * 4294967295 < 18446744073709551616 ->
  exists v d, nthN (starts (expand_rl cs ds) acc) rem = Some v /\ nthN (expand_rl cs ds) rem = Some d /\
              decode_time_loop cs ds rem acc = Ok (v, d).
Proof.
  induction cs as [|c cs IH]; intros ds rem acc Hl Hr Hd Hb; [cbn in Hr; lia|].
  destruct ds as [|d ds]; [rewrite lenN_cons, lenN_nil in Hl; lia|].
  rewrite !lenN_cons in Hl. cbn [sumN] in Hr. cbn [forallb] in Hd. apply andb_prop in Hd. destruct Hd as [Hd0 Hd].
  unfold is_u32 in Hd0. cbn [expand_rl decode_time_loop].
  rewrite starts_app, sumN_repeat, !nthN_app, lenN_starts, lenN_repeat, N2Nat.id.
  destruct (c <=? rem) eqn:E.
  - destruct (rem <? c) eqn:E1; [lia|]. rewrite u64_small by nia.
    apply IH; [lia|lia|exact Hd|nia].
  - destruct (rem <? c) eqn:E1; [|lia].
    rewrite nthN_starts_repeat, nthN_repeat, N2Nat.id, E1.
    exists (acc + rem * d), d. split; [reflexivity|]. split; [reflexivity|].
    destruct (0 <? rem) eqn:E2.
    + rewrite u64_small by nia. reflexivity.
    + replace rem with 0 by lia. rewrite N.add_0_r. reflexivity.
Qed.

Lemma decode_time_exact : forall cs ds, lenN cs = lenN ds -> forallb is_u32 ds = true ->
  forall n, 1 <= n -> n <= sumN cs -> n < 4294967296 ->
  exists t d, nthN (starts (expand_rl cs ds) 0) (n - 1) = Some t /\ nthN (expand_rl cs ds) (n - 1) = Some d /\
              stts_get_decode_time cs ds n = Ok (t, d).
Proof.
  intros cs ds Hl Hd n H1 H2 H3. unfold stts_get_decode_time. destruct (n =? 0) eqn:E; [lia|].
  apply decode_time_loop_ok; try assumption; lia.
Qed.

Lemma get_dur_loop_ok cs : forall ds rem dur0,
  lenN cs = lenN ds -> rem < sumN cs ->
  exists d, nthN (expand_rl cs ds) rem = Some d /\ get_dur_loop cs ds rem dur0 = Ok d.
Proof.
  induction cs as [|c cs IH]; intros ds rem dur0 Hl Hr; [cbn in Hr; lia|].
  destruct ds as [|d ds]; [rewrite lenN_cons, lenN_nil in Hl; lia|].
  rewrite !lenN_cons in Hl. cbn [sumN] in Hr. cbn [expand_rl get_dur_loop].
  rewrite nthN_app, lenN_repeat.
  destruct (c <=? rem) eqn:E.
  - destruct (rem <? N.of_nat (N.to_nat c)) eqn:E1; [lia|].
    destruct (IH ds (rem - c) d) as [d' [H1 H2]]; try lia.
    exists d'. replace (N.of_nat (N.to_nat c)) with c by lia. auto.
  - destruct (rem <? N.of_nat (N.to_nat c)) eqn:E1; [|lia].
    rewrite nthN_repeat, E1. eauto.
Qed.

Lemma stts_facts tb : consistent tb = true ->
  lenN (t_stts_count tb) = lenN (t_stts_delta tb) /\ sumN (t_stts_count tb) = nsamples tb /\
  nsamples tb < 4294967296 /\ sumN (durs tb) < 18446744073709551616 /\ lenN (durs tb) = nsamples tb.
Proof.
  intros H. destruct (consistent_parts tb H) as [Hn [Hs _]]. unfold stts_ok in Hs.
  repeat (apply andb_prop in Hs; destruct Hs as [Hs ?]).
  unfold is_u32 in Hn.
  assert (L : lenN (t_stts_count tb) = lenN (t_stts_delta tb)) by lia.
  assert (S : sumN (t_stts_count tb) = nsamples tb) by lia.
  repeat split; try lia.
  - unfold durs. pose proof (sumN_expand_bound (t_stts_count tb) (t_stts_delta tb) H1). nia.
  - unfold durs. rewrite lenN_expand by exact L. exact S.
Qed.

Lemma stts_u32 tb : consistent tb = true ->
  forallb is_u32 (t_stts_count tb) = true /\ forallb is_u32 (t_stts_delta tb) = true.
Proof.
  intros H. destruct (consistent_parts tb H) as [_ [Hs _]]. unfold stts_ok in Hs.
  repeat (apply andb_prop in Hs; destruct Hs as [Hs ?]). split; assumption.
Qed.

Lemma decode_time_correct tb : consistent tb = true -> forall n, 1 <= n <= nsamples tb ->
  exists t d, S_decode_time tb n = Some t /\ S_dur tb n = Some d /\
              stts_get_decode_time (t_stts_count tb) (t_stts_delta tb) n = Ok (t, d).
Proof.
  intros H n Hn. destruct (stts_facts tb H) as [L [S [B _]]]. destruct (stts_u32 tb H) as [_ Hd].
  unfold S_decode_time, S_dur. destruct (n =? 0) eqn:E; [lia|].
  apply decode_time_exact; try assumption; lia.
Qed.

Lemma dur_correct tb : consistent tb = true -> forall n, 1 <= n <= nsamples tb ->
  exists d, S_dur tb n = Some d /\ stts_get_dur (t_stts_count tb) (t_stts_delta tb) n = Ok d.
Proof.
  intros H n Hn. destruct (stts_facts tb H) as [L [S [_ [_ _]]]].
  unfold S_dur, stts_get_dur. destruct (n =? 0) eqn:E; [lia|].
  destruct (get_dur_loop_ok (t_stts_count tb) (t_stts_delta tb) (n - 1) 0) as [d [H1 H2]]; try lia.
  exists d. auto.
Qed.

Lemma stsz_facts tb : consistent tb = true ->
  let z := t_stsz tb in
  (sz_uniform z = 0 /\ sz_number z = lenN (sz_sizes z) /\ sizes tb = sz_sizes z \/
   sz_uniform z <> 0 /\ sz_sizes z = [] /\ sizes tb = repeat (sz_uniform z) (N.to_nat (sz_number z)))
  /\ nsamples tb = sz_number z /\ sz_number z < 4294967296 /\ sz_uniform z < 4294967296
  /\ forallb is_u32 (sz_sizes z) = true.
Proof.
  intros H z. destruct (consistent_parts tb H) as [Hn [_ [_ [_ [Hz _]]]]]. unfold stsz_ok in Hz. fold z in Hz.
  repeat (apply andb_prop in Hz; destruct Hz as [Hz ?]). unfold is_u32 in *.
  unfold nsamples, sizes, sizes_of in *. fold z in Hn |- *.
  destruct (sz_uniform z =? 0) eqn:E.
  - split; [left; repeat split; lia|]. repeat split; try lia. assumption.
  - assert (sz_sizes z = []) by (destruct (sz_sizes z); [reflexivity|rewrite lenN_cons in *; lia]).
    split; [right; repeat split; [lia|assumption]|]. rewrite lenN_repeat in *. repeat split; try lia. assumption.
Qed.

Lemma nr_samples_correct tb : consistent tb = true -> trak_nr_samples tb = nsamples tb.
Proof.
  intros H. destruct (stsz_facts tb H) as [[[U [Nn S]]|[U [Sz S]]] [Hn [B _]]];
    unfold trak_nr_samples, stsz_get_nr_samples.
  - destruct (lenN (sz_sizes (t_stsz tb)) =? 0) eqn:E; [lia|]. rewrite u32_small by lia. lia.
  - rewrite Sz, lenN_nil. cbn. lia.
Qed.

Lemma size_correct tb : consistent tb = true -> forall n, 1 <= n <= nsamples tb ->
  exists s, S_size tb n = Some s /\ stsz_get_sample_size (t_stsz tb) n = Ok s.
Proof.
  intros H n Hn. destruct (stsz_facts tb H) as [[[U [Nn S]]|[U [Sz S]]] [HN [B _]]];
    unfold S_size, stsz_get_sample_size; destruct (n =? 0) eqn:E0; try lia; rewrite S.
  - destruct (lenN (sz_sizes (t_stsz tb)) <? n) eqn:E; [lia|].
    destruct (nthN_lt_Some (sz_sizes (t_stsz tb)) (n - 1)) as [s Hs]; [lia|].
    exists s. split; [exact Hs|]. apply idx_m1_Some; [lia|exact Hs].
  - rewrite Sz, lenN_nil. destruct (0 <? n) eqn:E; [|lia].
    rewrite nthN_repeat. destruct (n - 1 <? N.of_nat (N.to_nat (sz_number (t_stsz tb)))) eqn:E1; [|lia]. eauto.
Qed.

Lemma skipn_nthN {A} (l : list A) k x : nthN l k = Some x ->
  skipn (N.to_nat k) l = x :: skipn (N.to_nat (k + 1)) l.
Proof.
  revert k; induction l as [|y t IH]; intros k H; [discriminate|].
  cbn [nthN] in H. destruct (k =? 0) eqn:E.
  - injection H as ->. replace k with 0 by lia. reflexivity.
  - replace (N.to_nat k) with (S (N.to_nat (k - 1))) by lia.
    replace (N.to_nat (k + 1)) with (S (N.to_nat (k - 1 + 1))) by lia. cbn [skipn]. apply IH, H.
Qed.

Lemma sublist_S {A} (l : list A) k x n : nthN l k = Some x ->
  sublist l k (N.of_nat (S n)) = x :: sublist l (k + 1) (N.of_nat n).
Proof.
  intros H. unfold sublist. rewrite (skipn_nthN l k x H), !Nat2N.id. reflexivity.
Qed.

Lemma sum_sizes_loop_ok sizes : forall n nr acc, 1 <= nr -> nr - 1 + N.of_nat n <= lenN sizes ->
  acc + sumN (skipn (N.to_nat (nr - 1)) sizes) < 18446744073709551616 ->
  sum_sizes_loop sizes n nr acc = Ok (acc + sumN (sublist sizes (nr - 1) (N.of_nat n))).
Proof.
  induction n as [|n IH]; intros nr acc Hnr Hlen Hb.
  - cbn [sum_sizes_loop]. unfold sublist. cbn [N.of_nat N.to_nat firstn sumN]. f_equal. lia.
  - cbn [sum_sizes_loop]. destruct (nthN_lt_Some sizes (nr - 1)) as [s Hs]; [lia|].
    rewrite (idx_m1_Some _ _ _ Hnr Hs). cbn [rbind].
    rewrite (skipn_nthN _ _ _ Hs) in Hb. cbn [sumN] in Hb.
    rewrite (sublist_S _ _ _ _ Hs). cbn [sumN].
    rewrite u64_small by lia. replace (nr - 1 + 1) with (nr + 1 - 1) in * by lia.
    rewrite IH; [f_equal; lia|lia|lia|lia].
Qed.

Lemma sumN_skipn_le l k : sumN (skipn k l) <= sumN l.
Proof. rewrite <- (firstn_skipn k l) at 2. rewrite sumN_app. lia. Qed.

Lemma sumN_firstn_le l k : sumN (firstn k l) <= sumN l.
Proof. rewrite <- (firstn_skipn k l) at 2. rewrite sumN_app. lia. Qed.

Lemma skipn_repeat {A} (x : A) m j : skipn j (repeat x m) = repeat x (m - j).
Proof.
  revert j; induction m as [|m IH]; intros j; [destruct j; reflexivity|].
  destruct j as [|j]; [reflexivity|]. cbn [repeat skipn]. rewrite IH. reflexivity.
Qed.

Lemma firstn_repeat' {A} (x : A) m k : firstn k (repeat x m) = repeat x (Nat.min k m).
Proof.
  revert k; induction m as [|m IH]; intros k; [destruct k; reflexivity|].
  destruct k as [|k]; [reflexivity|]. cbn [repeat firstn Nat.min]. rewrite IH. reflexivity.
Qed.

Lemma sizes_bound tb : consistent tb = true -> sumN (sizes tb) < 18446744073709551616.
Proof.
  intros H. destruct (stsz_facts tb H) as [[[U [Nn S]]|[U [Sz S]]] [HN [B [Bu Bs]]]]; rewrite S.
  - assert (forall l, forallb is_u32 l = true -> sumN l <= lenN l * 4294967295) as G.
    { induction l as [|x t IHl]; intros Hf; [cbn; lia|]. cbn [forallb] in Hf. apply andb_prop in Hf.
      destruct Hf as [Hx Ht]. unfold is_u32 in Hx. cbn [sumN]. rewrite lenN_cons. specialize (IHl Ht). lia. }
    specialize (G _ Bs). nia.
  - rewrite sumN_repeat. nia.
Qed.

Lemma total_size_correct tb : consistent tb = true -> forall a b, 1 <= a -> b <= nsamples tb ->
  stsz_get_total_sample_size (t_stsz tb) a b = Ok (S_total_size tb a b).
Proof.
  intros H a b Ha Hb. pose proof (sizes_bound tb H) as Hsb.
  destruct (stsz_facts tb H) as [[[U [Nn S]]|[U [Sz S]]] [HN [B [Bu Bs]]]];
    unfold stsz_get_total_sample_size, S_total_size; rewrite S in *;
    destruct (a =? 0) eqn:E0; try lia; destruct (sz_number (t_stsz tb) <? b) eqn:E1; try lia; cbn [orb].
  - destruct (b <? a) eqn:E2.
    + replace (b + 1 - a) with 0 by lia. reflexivity.
    + rewrite U. cbn [N.eqb negb].
      rewrite (sum_sizes_loop_ok (sz_sizes (t_stsz tb)) (N.to_nat (b + 1 - a)) a 0); try lia.
      * rewrite N2Nat.id. reflexivity.
      * pose proof (sumN_skipn_le (sz_sizes (t_stsz tb)) (N.to_nat (a - 1))). lia.
  - destruct (b <? a) eqn:E2.
    + replace (b + 1 - a) with 0 by lia. reflexivity.
    + destruct (sz_uniform (t_stsz tb) =? 0) eqn:E3; [lia|]. cbn [negb].
      unfold sublist. rewrite skipn_repeat, firstn_repeat', sumN_repeat.
      rewrite u64_small by nia. f_equal. nia.
Qed.
