(* C09BaseProofs.v — list lemmas for N-indexed access and the generic binary-search lemma. *)
From V.lib Require Import Base.
From V.c09 Require Import C09Model.

Lemma nthN_nil {A} i : @nthN A [] i = None.
Proof. reflexivity. Qed.

Lemma nthN_cons {A} (x : A) l i : nthN (x :: l) i = if i =? 0 then Some x else nthN l (i - 1).
Proof. reflexivity. Qed.

Lemma nthN_S {A} (x : A) l i : nthN (x :: l) (i + 1) = nthN l i.
Proof. cbn [nthN]. destruct (i + 1 =? 0) eqn:E; [lia|]. f_equal. lia. Qed.

Lemma nthN_app {A} (l1 l2 : list A) i :
  nthN (l1 ++ l2) i = if i <? lenN l1 then nthN l1 i else nthN l2 (i - lenN l1).
Proof.
  revert i; induction l1 as [|x t IH]; intros i; cbn [app nthN].
  - rewrite lenN_nil. destruct (i <? 0) eqn:E; [lia|]. f_equal; lia.
  - rewrite lenN_cons. destruct (i =? 0) eqn:E0.
    + destruct (i <? 1 + lenN t) eqn:E1; [reflexivity|lia].
    + rewrite IH. destruct (i - 1 <? lenN t) eqn:E1, (i <? 1 + lenN t) eqn:E2; try lia; try reflexivity.
      f_equal. lia.
Qed.

Lemma nthN_ge_None {A} (l : list A) i : lenN l <= i -> nthN l i = None.
Proof.
  revert i; induction l as [|x t IH]; intros i H; cbn [nthN]; [reflexivity|].
  rewrite lenN_cons in H. destruct (i =? 0) eqn:E; [lia|]. apply IH. lia.
Qed.

Lemma nthN_lt_Some {A} (l : list A) i : i < lenN l -> exists x, nthN l i = Some x.
Proof.
  revert i; induction l as [|x t IH]; intros i H.
  - rewrite lenN_nil in H. lia.
  - rewrite lenN_cons in H. cbn [nthN]. destruct (i =? 0) eqn:E; [eauto|]. apply IH. lia.
Qed.

Lemma nthN_Some_lt {A} (l : list A) i x : nthN l i = Some x -> i < lenN l.
Proof.
  intros H. destruct (N.lt_ge_cases i (lenN l)) as [L|L]; [exact L|].
  rewrite nthN_ge_None in H by exact L. discriminate.
Qed.

Lemma lenN_repeat {A} (x : A) k : lenN (repeat x k) = N.of_nat k.
Proof. unfold lenN. rewrite repeat_length. reflexivity. Qed.

Lemma nthN_repeat {A} (x : A) k i : nthN (repeat x k) i = if i <? N.of_nat k then Some x else None.
Proof.
  revert i; induction k as [|k IH]; intros i.
  - cbn [repeat nthN]. destruct (i <? N.of_nat 0) eqn:E; [lia|reflexivity].
  - cbn [repeat nthN]. destruct (i =? 0) eqn:E0.
    + destruct (i <? N.of_nat (S k)) eqn:E; [reflexivity|lia].
    + rewrite IH. destruct (i - 1 <? N.of_nat k) eqn:E1, (i <? N.of_nat (S k)) eqn:E2; try reflexivity; lia.
Qed.

Lemma sumN_repeat d k : sumN (repeat d k) = N.of_nat k * d.
Proof. induction k as [|k IH]; cbn [repeat sumN]; [lia|]. rewrite IH. lia. Qed.

Lemma nthN_map {A B} (f : A -> B) l i : nthN (map f l) i = option_map f (nthN l i).
Proof.
  revert i; induction l as [|x t IH]; intros i; cbn [map nthN]; [reflexivity|].
  destruct (i =? 0); [reflexivity|apply IH].
Qed.

Lemma lenN_map {A B} (f : A -> B) l : lenN (map f l) = lenN l.
Proof. unfold lenN. rewrite map_length. reflexivity. Qed.

Lemma last_cons {A} (a : A) l : forall d, last (a :: l) d = last l a.
Proof.
  revert a; induction l as [|b t IH]; intros a d; [reflexivity|].
  change (last (b :: t) d = last (b :: t) a). rewrite !IH. reflexivity.
Qed.

Lemma last_app {A} (l1 l2 : list A) : forall d, last (l1 ++ l2) d = last l2 (last l1 d).
Proof. induction l1 as [|a t IH]; intros d; [reflexivity|]. cbn [app]. rewrite !last_cons. apply IH. Qed.

Lemma idx_Some {A} (l : list A) i x : nthN l i = Some x -> idx l i = Ok x.
Proof. unfold idx. intros ->. reflexivity. Qed.

Lemma idx_m1_Some {A} (l : list A) i x : 1 <= i -> nthN l (i - 1) = Some x -> idx_m1 l i = Ok x.
Proof. unfold idx_m1. intros H E. destruct (i =? 0) eqn:E0; [lia|]. apply idx_Some, E. Qed.

(* u32 / u64 are the identity below the modulus *)
Lemma u32_small x : x < 4294967296 -> u32 x = x.
Proof. unfold u32. intros. apply N.mod_small. assumption. Qed.
Lemma u64_small x : x < 18446744073709551616 -> u64 x = x.
Proof. unfold u64. intros. apply N.mod_small. assumption. Qed.
Lemma sub32_small a b : b <= a -> a < 4294967296 -> sub32 a b = a - b.
Proof. unfold sub32. intros. rewrite (N.mod_small b) by lia. 
  replace (a + 4294967296 - b) with ((a - b) + 1 * 4294967296) by lia.
  rewrite N.mod_add by discriminate. apply N.mod_small. lia. Qed.
Lemma sub64_small a b : b <= a -> a < 18446744073709551616 -> sub64 a b = a - b.
Proof. unfold sub64. intros. rewrite (N.mod_small b) by lia.
  replace (a + 18446744073709551616 - b) with ((a - b) + 1 * 18446744073709551616) by lia.
  rewrite N.mod_add by discriminate. apply N.mod_small. lia. Qed.

(* go_right is true on a prefix of the (sorted) list: then the loop returns the first index where it is false *)
Definition prefix_true (go_right : N -> bool) (l : list N) : Prop :=
  forall i j vi vj, i <= j -> nthN l i = Some vi -> nthN l j = Some vj -> go_right vj = true -> go_right vi = true.

Lemma bsearch_spec go_right l : prefix_true go_right l ->
  forall fuel lo hi, lo <= hi -> hi <= lenN l -> (N.to_nat (hi - lo) < fuel)%nat ->
  exists r, bsearch go_right l fuel lo hi = Ok r /\ lo <= r <= hi /\
    (forall i v, lo <= i < r -> nthN l i = Some v -> go_right v = true) /\
    (forall i v, r <= i < hi -> nthN l i = Some v -> go_right v = false).
Proof.
  intros Hm fuel; induction fuel as [|f IH]; intros lo hi Hle Hhi Hf; [lia|].
  cbn [bsearch]. destruct (lo <? hi) eqn:E.
  - set (h := (lo + hi) / 2).
    assert (Hh : lo <= h < hi) by (unfold h; lia).
    destruct (nthN_lt_Some l h) as [v Hv]; [lia|].
    rewrite (idx_Some _ _ _ Hv). cbn [rbind].
    destruct (go_right v) eqn:Eg.
    + destruct (IH (h + 1) hi) as [r [Hr [Hb [H1 H2]]]]; try lia.
      exists r. split; [exact Hr|]. split; [lia|]. split; [|exact H2].
      intros i vi Hi Hvi. destruct (N.lt_ge_cases h i) as [L|L].
      * apply (H1 i vi); [lia|exact Hvi].
      * apply (Hm i h vi v); try assumption.
    + destruct (IH lo h) as [r [Hr [Hb [H1 H2]]]]; try lia.
      exists r. split; [exact Hr|]. split; [lia|]. split; [exact H1|].
      intros i vi Hi Hvi. destruct (N.lt_ge_cases i h) as [L|L].
      * apply (H2 i vi); [lia|exact Hvi].
      * destruct (go_right vi) eqn:Egi; [|reflexivity].
        rewrite (Hm h i v vi L Hv Hvi Egi) in Eg. discriminate.
  - exists lo. split; [reflexivity|]. split; [lia|]. split; intros; lia.
Qed.

Lemma bsearch_fuel_ok {A} (l : list A) lo hi : hi <= lenN l -> (N.to_nat (hi - lo) < bsearch_fuel l)%nat.
Proof. unfold bsearch_fuel, lenN. intros. lia. Qed.
