(* C09Theorems.v — the property theorems of C09 and nothing else.  Each is closed by `exact <lemma>`, or by
   evaluation where it is a concrete counterexample, and followed by Print Assumptions (audited by ./check on
   every run).
   Shape: for ALL tables with `consistent tb = true` and every argument in range, the model of the Go query
   (C09Model.v) returns Ok of the value the naive per-sample expansion (C09Spec.v) defines. *)
From V.lib Require Import Base.
From V.c09 Require Import C09Model C09Spec C09BaseProofs C09SttsProofs C09CttsProofs C09StscProofs C09TrakProofs C09TimeProofs C09CacheProofs.
From V.c09 Require Import C09BuildModel C09BuildCttsProofs C09BuildStscProofs.
From V.c09 Require Import C09ArithProofs C09PureModel C09PureProofs.
From V.c09 Require Import C09TimeCodeModel C09TimeCodeProofs C09RowsModel C09RowsProofs C09TimeCodePastProofs.

(* a concrete non-trivial consistent table set: 7 samples, 3 stts runs, ctts, 2 stsc entries over 3 chunks,
   explicit sizes, stco, stss, sdtp *)
Definition ex_tb : tables :=
  mkTables [3; 1; 3] [10; 20; 5]
           (Some (mkCtts [0; 2; 7] [0%Z; (-3)%Z]))
           (mkStsc [mkEntry 1 2 1; mkEntry 3 3 5] 0 [1; 2])
           (mkStsz 0 7 [4; 5; 6; 7; 8; 9; 10])
           (Some [100; 200; 300]) None
           (Some [1; 5]) (Some [0; 16; 32; 64; 4; 8; 1]).
Example ex_tb_consistent : consistent ex_tb = true /\ nsamples ex_tb = 7 /\
                           deltas_positive (t_stts_count ex_tb) (t_stts_delta ex_tb) = true.
Proof. vm_compute. repeat split. Qed.

(* SttsBox.GetDecodeTime: decode time = sum of the durations of the earlier samples, and the duration *)
Theorem C09_decode_time : forall tb, consistent tb = true -> forall n, 1 <= n <= nsamples tb ->
  exists t d, S_decode_time tb n = Some t /\ S_dur tb n = Some d /\
              stts_get_decode_time (t_stts_count tb) (t_stts_delta tb) n = Ok (t, d).
Proof. exact decode_time_correct. Qed.
Print Assumptions C09_decode_time.

(* SttsBox.GetDur *)
Theorem C09_dur : forall tb, consistent tb = true -> forall n, 1 <= n <= nsamples tb ->
  exists d, S_dur tb n = Some d /\ stts_get_dur (t_stts_count tb) (t_stts_delta tb) n = Ok d.
Proof. exact dur_correct. Qed.
Print Assumptions C09_dur.

(* StszBox.GetSampleSize and GetNrSamples *)
Theorem C09_size : forall tb, consistent tb = true -> forall n, 1 <= n <= nsamples tb ->
  exists s, S_size tb n = Some s /\ stsz_get_sample_size (t_stsz tb) n = Ok s.
Proof. exact size_correct. Qed.
Print Assumptions C09_size.

Theorem C09_nr_samples : forall tb, consistent tb = true -> trak_nr_samples tb = nsamples tb.
Proof. exact nr_samples_correct. Qed.
Print Assumptions C09_nr_samples.

(* StszBox.GetTotalSampleSize (also for the empty interval b = a-1) *)
Theorem C09_total_size : forall tb, consistent tb = true -> forall a b, 1 <= a -> b <= nsamples tb ->
  stsz_get_total_sample_size (t_stsz tb) a b = Ok (S_total_size tb a b).
Proof. exact total_size_correct. Qed.
Print Assumptions C09_total_size.

(* CttsBox.GetCompositionTimeOffset: cumulative EndSampleNr + binary search = expansion of the run lengths *)
Theorem C09_cto : forall tb c, consistent tb = true -> t_ctts tb = Some c -> forall n, 1 <= n <= nsamples tb ->
  exists x, S_cto c n = Some x /\ ctts_get_cto c n = Ok x.
Proof. exact cto_correct. Qed.
Print Assumptions C09_cto.

(* StssBox.IsSyncSample: binary search = membership, for every sample number *)
Theorem C09_is_sync : forall tb l, consistent tb = true -> t_stss tb = Some l -> forall n,
  stss_is_sync l n = Ok (S_is_sync l n).
Proof. exact is_sync_correct_tb. Qed.
Print Assumptions C09_is_sync.

(* SttsBox.GetSampleNrAtTime: the first sample starting at or after t (N+1 strictly inside the last sample),
   an error beyond the end except for the documented final zero-duration sample.  Needs deltas_positive. *)
Theorem C09_sample_at_time : forall tb, consistent tb = true ->
  deltas_positive (t_stts_count tb) (t_stts_delta tb) = true -> 1 <= nsamples tb ->
  forall t, stts_get_sample_nr_at_time (t_stts_count tb) (t_stts_delta tb) t =
            match S_sample_at_time tb t with Some nr => Ok nr | None => Err end.
Proof. exact sample_at_time_correct. Qed.
Print Assumptions C09_sample_at_time.

(* without deltas_positive the faithful model contradicts the expansion (known finding C09-F3) *)
Definition zd_tb : tables :=
  mkTables [3; 1; 3] [0; 0; 2] None (mkStsc [mkEntry 1 7 1] 1 []) (mkStsz 4 7 []) (Some [100]) None None None.
Theorem C09_sample_at_time_zero_delta_refuted :
  consistent zd_tb = true /\ S_sample_at_time zd_tb 0 = Some 1 /\
  stts_get_sample_nr_at_time (t_stts_count zd_tb) (t_stts_delta zd_tb) 0 = Ok 5.
Proof. vm_compute. repeat split. Qed.
Print Assumptions C09_sample_at_time_zero_delta_refuted.

(* StscBox.ChunkNrFromSampleNr: chunk of a sample and the first sample of that chunk *)
Theorem C09_chunk_of_sample : forall tb, consistent tb = true -> forall n, 1 <= n <= nsamples tb ->
  exists c, S_chunk_of tb n = Some c /\ 1 <= c <= nchunks tb /\
            S_first_in_chunk tb c <= n /\
            (exists cnt, S_chunk_count tb c = Some cnt /\ n < S_first_in_chunk tb c + cnt) /\
            stsc_chunk_nr_from_sample_nr (sc_entries (t_stsc tb)) n = Ok (c, S_first_in_chunk tb c).
Proof. exact chunk_of_sample_correct. Qed.
Print Assumptions C09_chunk_of_sample.

(* StscBox.GetChunk: start sample and number of samples of a chunk *)
Theorem C09_chunk_contents : forall tb, consistent tb = true -> forall c, 1 <= c <= nchunks tb ->
  exists cnt, S_chunk_count tb c = Some cnt /\ 1 <= cnt /\ S_first_in_chunk tb c + cnt <= nsamples tb + 1 /\
              stsc_get_chunk (sc_entries (t_stsc tb)) c = Ok (mkChunk c (S_first_in_chunk tb c) cnt).
Proof. exact get_chunk_correct. Qed.
Print Assumptions C09_chunk_contents.

(* StcoBox/Co64Box.GetOffset *)
Theorem C09_chunk_offset : forall tb, consistent tb = true -> forall c, 1 <= c <= nchunks tb ->
  exists o, S_chunk_offset tb c = Some o /\ trak_chunk_offset tb c = Ok o.
Proof. exact get_offset_correct. Qed.
Print Assumptions C09_chunk_offset.

(* StscBox.GetContainingChunks: exactly the chunks chunk_of a .. chunk_of b, in order, each with its start
   sample and count *)
Theorem C09_containing_chunks : forall tb, consistent tb = true -> forall a b, 1 <= a -> a <= b -> b <= nsamples tb ->
  exists ca cb l, S_chunk_of tb a = Some ca /\ S_chunk_of tb b = Some cb /\ 1 <= ca /\ ca <= cb /\ cb <= nchunks tb /\
    stsc_get_containing_chunks (sc_entries (t_stsc tb)) a b = Ok l /\
    map Some l = map (S_chunk tb) (seqN ca (N.to_nat (cb + 1 - ca))).
Proof. exact containing_chunks_correct. Qed.
Print Assumptions C09_containing_chunks.

(* TrakBox.GetRangesForSampleInterval: one range per chunk met, starting at the file offset of the first wanted
   sample of the chunk and covering exactly the wanted samples of that chunk *)
Theorem C09_byte_ranges : forall tb, consistent tb = true -> forall a b, 1 <= a -> a <= b -> b <= nsamples tb ->
  exists rl, trak_get_ranges tb a b = Ok rl /\ S_ranges tb a b = Some (map Some rl).
Proof. exact ranges_correct. Qed.
Print Assumptions C09_byte_ranges.

(* TrakBox.GetSampleData (repaired text, f05688e): per-interval metadata = map meta [a..b] *)
Theorem C09_sample_data : forall tb, consistent tb = true -> forall a b, 1 <= a -> a <= b + 1 -> b <= nsamples tb ->
  exists l, trak_get_sample_data tb a b = Ok l /\ map Some l = S_sample_data tb a b.
Proof. exact sample_data_correct. Qed.
Print Assumptions C09_sample_data.

(* the pinned text panics for every interval that does not start at sample 1 *)
Theorem C09_sample_data_refuted : forall tb a b, 2 <= a -> a <= b -> b <= trak_nr_samples tb ->
  trak_get_sample_data_pinned tb a b = Panic.
Proof. exact sample_data_pinned_panics. Qed.
Print Assumptions C09_sample_data_refuted.

(* StscEntry.FirstSampleNr as computed by DecodeStscSR and by repeated AddEntry = the naive recurrence *)
Example ex_raw_ok : raw_ok [(1, 2, 1); (3, 3, 2); (7, 1, 1)] = true /\
                    map first_sample (S_entries [(1, 2, 1); (3, 3, 2); (7, 1, 1)]) = [1; 5; 17].
Proof. vm_compute. split; reflexivity. Qed.
Theorem C09_first_sample_nr_cache : forall raw, raw_ok raw = true ->
  (exists b, stsc_decode raw = Ok b /\ sc_entries b = S_entries raw) /\
  (match raw with [] => True | (fc, _, _) :: _ => fc = 1 end ->
   exists b, stsc_add_entries (mkStsc [] 0 []) raw = Ok b /\ sc_entries b = S_entries raw).
Proof. exact first_sample_nr_cache. Qed.
Print Assumptions C09_first_sample_nr_cache.

(* StscBox.GetSampleDescriptionID (repaired text, af784a4): the id of the stsc run the chunk belongs to *)
Theorem C09_sample_description_id : forall tb, consistent tb = true -> forall c, 1 <= c <= nchunks tb ->
  exists id, S_sample_description_id tb c = Some id /\ stsc_get_sample_description_id (t_stsc tb) c = Ok id.
Proof. exact sample_description_id_correct. Qed.
Print Assumptions C09_sample_description_id.

(* the pinned text indexed the per-entry ids with the chunk number: wrong id for chunk 2, panic for chunk 3 *)
Definition sd_tb : tables :=
  mkTables [6] [10] None (mkStsc [mkEntry 1 2 1; mkEntry 3 1 5] 0 [1; 2]) (mkStsz 0 6 [1; 2; 3; 4; 5; 6])
           (Some [100; 200; 300; 400]) None None None.
Theorem C09_sample_description_id_refuted :
  consistent sd_tb = true /\
  S_sample_description_id sd_tb 2 = Some 1 /\ stsc_get_sample_description_id_pinned (t_stsc sd_tb) 2 = Ok 2 /\
  S_sample_description_id sd_tb 3 = Some 2 /\ stsc_get_sample_description_id_pinned (t_stsc sd_tb) 3 = Panic.
Proof. vm_compute. repeat split. Qed.
Print Assumptions C09_sample_description_id_refuted.

(* Tables built through the library's builder methods (C09BuildModel.v).
   The property quantifies over consistent sample tables however they were built.  A history is a list of
   method calls (no bound on its length or on the rows per call); ctts_run / stsc_run fold the transcription of
   the Go method over it, cache fields included.  A refused call (error return) leaves the box untouched. *)

(* a history for each of the two boxes that have builder methods; they build the ctts / stsc of ex_tb.  The stsc
   history contains calls with description id 0: AddEntry refuses them, SetSingle... ignores them (cb02a8f) *)
Definition ex_ctts_calls : list (list N * list Z) := [([2], [0%Z]); ([], []); ([5], [(-3)%Z])].
Definition ex_stsc_calls : list stsc_call := [SAdd 1 2 2; SSetSingle 0; SAdd 2 9 0; SSetSingle 1; SAdd 3 3 2].
Example ex_histories :
  ctts_run ctts_empty ex_ctts_calls = mkCtts [0; 2; 7] [0%Z; (-3)%Z] /\
  t_ctts ex_tb = Some (ctts_run (ctts_decode []) ex_ctts_calls) /\
  existsb ctts_call_ok ex_ctts_calls = true /\
  stsc_decode [] = Ok stsc_empty /\
  stsc_table [] ex_stsc_calls = [(1, 2, 1); (3, 3, 2)] /\
  t_stsc ex_tb = stsc_run stsc_empty ex_stsc_calls /\
  raw_ok (stsc_table [] ex_stsc_calls) = true /\ rows_ok (stsc_table [] ex_stsc_calls) (nchunks ex_tb) = true /\
  sumN (chunk_counts (S_entries (stsc_table [] ex_stsc_calls)) (nchunks ex_tb)) = nsamples ex_tb /\
  sumN (map fst ([] ++ ctts_table ex_ctts_calls)) = nsamples ex_tb.
Proof. vm_compute. repeat split. Qed.

(* CttsBox.AddSampleCountsAndOffset: after ANY history of calls on a decoded box (raw0 = [] : a box decoded
   from an empty table) or on `&CttsBox{}` (as soon as one call was accepted), the box — EndSampleNr included —
   is the one DecodeCttsSR builds from the concatenated table *)
Theorem C09_builder_ctts : forall raw0 calls,
  ctts_run (ctts_decode raw0) calls = ctts_decode (raw0 ++ ctts_table calls) /\
  (existsb ctts_call_ok calls = true -> ctts_run ctts_empty calls = ctts_decode (ctts_table calls)).
Proof. exact builder_ctts. Qed.
Print Assumptions C09_builder_ctts.

(* the cache invariant: EndSampleNr has one element more than the table, EndSampleNr[i] = (sum of the first i
   counts) mod 2^32 (leading 0), SampleOffset = the offset column *)
Theorem C09_ctts_cache : forall raw i, (i <= length raw)%nat ->
  nth_error (ct_end (ctts_decode raw)) i = Some (u32 (sumN (firstn i (map fst raw)))) /\
  length (ct_end (ctts_decode raw)) = S (length raw) /\ ct_off (ctts_decode raw) = map snd raw.
Proof. exact ctts_cache. Qed.
Print Assumptions C09_ctts_cache.

(* GetCompositionTimeOffset on a box built by ANY history returns the expansion of the concatenated table *)
Theorem C09_builder_ctts_query : forall raw0 calls,
  let raw := raw0 ++ ctts_table calls in
  sumN (map fst raw) < 4294967296 -> forall n, 1 <= n <= sumN (map fst raw) ->
  exists x, nthN (expand_rl (map fst raw) (map snd raw)) (n - 1) = Some x /\
            ctts_get_cto (ctts_run (ctts_decode raw0) calls) n = Ok x.
Proof. exact builder_ctts_query. Qed.
Print Assumptions C09_builder_ctts_query.

(* StscBox.AddEntry / SetSingleSampleDescriptionID (repaired text, cb02a8f): after ANY history of calls — no
   hypothesis on the ids passed — on a box DecodeStscSR returned (raw0 = [] : `&StscBox{}` = stsc_empty), the box —
   FirstSampleNr of every entry and the single/slice representation of the ids included — is the closed form of the
   table the history describes, and that is also what DecodeStscSR builds from this table (all arithmetic uint32,
   wrap-around included).  A call with id 0 changes neither the box nor the table. *)
Theorem C09_builder_stsc : forall raw0 b0 calls,
  stsc_decode raw0 = Ok b0 -> stsc_table raw0 calls <> [] ->
  b0 = stsc_of_table raw0 /\
  stsc_run b0 calls = stsc_of_table (stsc_table raw0 calls) /\
  stsc_decode (stsc_table raw0 calls) = Ok (stsc_of_table (stsc_table raw0 calls)).
Proof. exact builder_stsc. Qed.
Print Assumptions C09_builder_stsc.

(* the cache invariant without wrap-around: the entries are the naive recurrence, and
   FirstSampleNr[i] = 1 + sum over the runs j < i of (firstChunk[j+1] - firstChunk[j]) * samplesPerChunk[j] *)
Theorem C09_stsc_cache : forall raw, raw_ok raw = true ->
  sc_entries (stsc_of_table raw) = S_entries raw /\
  forall i e, nth_error (sc_entries (stsc_of_table raw)) i = Some e ->
              first_sample e = 1 + sumN (firstn i (run_samples raw)).
Proof. exact stsc_cache. Qed.
Print Assumptions C09_stsc_cache.

(* the pinned text (f87a9e4) did not look at the id (finding C09-F5, fixed): AddEntry(…, 0) after an entry with
   another id left SampleDescriptionID one element short, GetSampleDescriptionID of the new run's chunk panicked
   (DecodeStscSR refuses id 0); the repaired text refuses the call and leaves the box of the first two rows *)
Theorem C09_builder_stsc_zero_id_refuted :
  let h := [SAdd 1 2 1; SAdd 3 1 2; SAdd 4 1 0] in
  let b := stsc_run_pinned stsc_empty h in
  sc_ids b = [1; 2] /\ lenN (sc_entries b) = 3 /\ stsc_get_sample_description_id b 4 = Panic /\
  stsc_decode [(1, 2, 1); (3, 1, 2); (4, 1, 0)] = Err /\
  stsc_run stsc_empty h = stsc_of_table [(1, 2, 1); (3, 1, 2)] /\
  stsc_get_sample_description_id (stsc_run stsc_empty h) 4 = Ok 2.
Proof. vm_compute. repeat split. Qed.
Print Assumptions C09_builder_stsc_zero_id_refuted.

(* the bridge: table boxes built by ANY histories (ctts absent or built; stsc built from a decoded or empty box, no
   hypothesis on the ids passed) whose file-level tables are consistent make `consistent` hold, so that EVERY query
   theorem above applies to API-built tables *)
Theorem C09_builder_consistent : forall tb craw0 ccalls sraw0 sb0 scalls,
  is_u32 (nsamples tb + 1) = true -> stts_ok tb = true -> stsz_ok tb = true -> offsets_ok tb = true ->
  stss_ok tb = true -> sdtp_ok tb = true ->
  (t_ctts tb = None \/
   (t_ctts tb = Some (ctts_run (ctts_decode craw0) ccalls) /\
    sumN (map fst (craw0 ++ ctts_table ccalls)) = nsamples tb)) ->
  stsc_decode sraw0 = Ok sb0 ->
  t_stsc tb = stsc_run sb0 scalls ->
  raw_ok (stsc_table sraw0 scalls) = true -> rows_ok (stsc_table sraw0 scalls) (nchunks tb) = true ->
  match stsc_table sraw0 scalls with (fc, _, _) :: _ => fc = 1 | [] => False end ->
  sumN (chunk_counts (S_entries (stsc_table sraw0 scalls)) (nchunks tb)) = nsamples tb ->
  consistent tb = true.
Proof. exact builder_consistent. Qed.
Print Assumptions C09_builder_consistent.

(* The arithmetic hypotheses of the stts queries, exactly (C09SttsProofs.v, C09ArithProofs.v).
   `consistent` bounds the number of samples by is_u32 (N + 1).  On the bare stts columns: *)

(* SttsBox.GetDecodeTime needs NO arithmetic hypothesis: for ANY uint32 columns — the counts may sum to 2^32 and
   beyond — and every uint32 sample number 1..N, decode time and duration are those of the expansion, without
   uint64 wrap-around (a uint32 sample number has fewer than 2^32 predecessors of less than 2^32 ticks each) *)
Theorem C09_decode_time_exact : forall cs ds, lenN cs = lenN ds -> forallb is_u32 ds = true ->
  forall n, 1 <= n -> n <= sumN cs -> n < 4294967296 ->
  exists t d, nthN (starts (expand_rl cs ds) 0) (n - 1) = Some t /\ nthN (expand_rl cs ds) (n - 1) = Some d /\
              stts_get_decode_time cs ds n = Ok (t, d).
Proof. exact decode_time_exact. Qed.
Print Assumptions C09_decode_time_exact.
Example ex_decode_time_exact :
  stts_get_decode_time [4294967295; 4294967295] [4294967295; 7] 4294967295 = Ok (18446744060824649730, 4294967295).
Proof. vm_compute. reflexivity. Qed.

(* ... and past the last sample it panics for EVERY table (known finding C09-F4: no error result, the walk has no
   bound; GetDur answers the last duration there) *)
Theorem C09_decode_time_past_end : forall cs ds n, lenN cs = lenN ds -> sumN cs < n ->
  stts_get_decode_time cs ds n = Panic.
Proof. exact decode_time_past_end. Qed.
Print Assumptions C09_decode_time_past_end.

(* SttsBox.GetSampleNrAtTime needs exactly ONE arithmetic hypothesis: (sum of the counts) + 1 < 2^32, i.e. the
   answer N+1 ("t strictly inside the last sample") is a uint32; the total duration is then < 2^64 by itself *)
Theorem C09_sample_at_time_exact : forall cs ds, lenN cs = lenN ds ->
  forallb is_u32 cs = true -> forallb is_u32 ds = true -> deltas_positive cs ds = true ->
  1 <= sumN cs -> sumN cs + 1 < 4294967296 ->
  forall t, stts_get_sample_nr_at_time cs ds t = match sat_spec cs ds t with Some nr => Ok nr | None => Err end.
Proof. exact sample_at_time_exact. Qed.
Print Assumptions C09_sample_at_time_exact.
Example ex_sample_at_time_exact :
  let cs := [3; 4294967290; 1] in let ds := [10; 4294967295; 0] in
  lenN cs = lenN ds /\ forallb is_u32 cs = true /\ forallb is_u32 ds = true /\ deltas_positive cs ds = true /\
  sumN cs + 1 = 4294967295 /\ stts_get_sample_nr_at_time cs ds 18446744043644780580 = Ok 4294967294.
Proof. vm_compute. repeat split. Qed.

(* just above, (sum of the counts) + 1 = 2^32 — the largest track stsz can describe — the statement is false of
   the faithful model: for a time inside the last sample the answer N+1 = 2^32 wraps to sample number 0, with a nil
   error (reproduced on the real code: corr case w-stts-wrap, search witness stts-count-2^32-1).  Low severity. *)
Theorem C09_sample_at_time_wrap_refuted :
  let cs := [4294967295] in let ds := [2] in
  forallb is_u32 cs = true /\ deltas_positive cs ds = true /\ sumN cs + 1 = 4294967296 /\
  stts_get_sample_nr_at_time cs ds 8589934589 = Ok 0 /\
  stts_get_sample_nr_at_time cs ds 8589934588 = Ok 4294967295 /\
  stts_get_decode_time cs ds 4294967295 = Ok (8589934588, 2).
Proof. vm_compute. repeat split. Qed.
Print Assumptions C09_sample_at_time_wrap_refuted.

(* the FirstSampleNr cache (C09_stsc_cache, C09_builder_consistent) needs raw_ok: no uint32 wrap of
   1 + samples of the earlier runs.  Just above — a first run of 2 chunks x 2^31 samples — the cached number of the
   second run wraps to 1 and sample 1 is looked up in chunk 3 (such a table describes 2^32 samples or more: no stsz
   can be consistent with it) *)
Theorem C09_stsc_cache_wrap_refuted :
  let raw := [(1, 2147483648, 1); (3, 1, 1)] in
  rows_ok raw 3 = true /\ raw_ok raw = false /\ raw_ok [(1, 2147483647, 1); (3, 1, 1)] = true /\
  map first_sample (sc_entries (stsc_of_table raw)) = [1; 1] /\
  stsc_decode raw = Ok (stsc_of_table raw) /\
  stsc_chunk_nr_from_sample_nr (sc_entries (stsc_of_table raw)) 1 = Ok (3, 1).
Proof. vm_compute. repeat split. Qed.
Print Assumptions C09_stsc_cache_wrap_refuted.

(* The queries do not change the boxes (C09PureModel.v).
   Every query as a state transformer on the File / table-box state; the composite ones (GetSampleData,
   GetRangesForSampleInterval, CopySampleData) thread the state through every method call they make. *)
Definition ex_fstate : fstate := mkF false 92 [1; 2; 3; 4; 5; 6; 7; 8; 9] 0 ex_tb.
Example ex_run :
  run_all [QSampleData 2 3; QCopy false 1 2; QSampleAtTime 30; QRanges 2 6] ex_fstate =
  ([Ok (ASamples [mkSample 16842752 10 5 0%Z; mkSample 33619968 10 6 (-3)%Z]); Ok (APieces [(100, 9)]); Ok (AN 4);
    Ok (ARanges [mkRange 104 5; mkRange 200 13; mkRange 300 17])], ex_fstate).
Proof. vm_compute. reflexivity. Qed.

(* for every query q and every state s: run q s returns (answer, s) *)
Theorem C09_queries_pure : forall q s, run q s = (eval q s, s).
Proof. exact queries_pure. Qed.
Print Assumptions C09_queries_pure.

(* File.CopySampleData leaves the File / Mdat / table state as it found it (the ReadSeeker, the work buffer and
   the writer are not File state: they are C08's subject) *)
Theorem C09_copy_pure : forall rs a b s, snd (copy_sample_data_st rs a b s) = s.
Proof. exact copy_pure. Qed.
Print Assumptions C09_copy_pure.

(* the state-threaded GetSampleData / GetRangesForSampleInterval answer what the functions of C09_sample_data /
   C09_byte_ranges answer *)
Theorem C09_composite_answers : forall a b s,
  eval (QSampleData a b) s = rbind (trak_get_sample_data (f_tb s) a b) (fun l => Ok (ASamples l)) /\
  eval (QRanges a b) s = rbind (trak_get_ranges (f_tb s) a b) (fun l => Ok (ARanges l)).
Proof. exact composite_answers. Qed.
Print Assumptions C09_composite_answers.

(* order independence (the search re-asks every query in decreasing and shuffled order on the same boxes): in ANY
   sequence of queries each one gets the answer it gets on the initial state, and the state at the end is the
   initial state *)
Theorem C09_queries_order_independent : forall qs s, run_all qs s = (map (fun q => eval q s) qs, s).
Proof. exact run_all_pure. Qed.
Print Assumptions C09_queries_order_independent.

(* SttsBox.GetTimeCode (C09TimeCodeModel.v / C09TimeCodeProofs.v).
   "decode time of a sample" as a time.Duration in a given timescale: for ALL consistent tables, every sample number
   and every non-zero uint32 timescale, floor(10^9 * decode time / timescale) nanoseconds whenever that is an int64
   (the only values a time.Duration has).  Repaired text (/repo 423d4e5, finding C09-F7). *)
Theorem C09_time_code : forall tb, consistent tb = true -> forall n ts, 1 <= n <= nsamples tb ->
  0 < ts -> ts < 4294967296 ->
  exists t, S_decode_time tb n = Some t /\
            (1000000000 * t / ts < 9223372036854775808 ->
             stts_get_time_code (t_stts_count tb) (t_stts_delta tb) n ts = Ok (S_time_code t ts)).
Proof. exact time_code_correct. Qed.
Print Assumptions C09_time_code.

(* on the bare columns, with no more arithmetic hypotheses than C09_decode_time_exact (counts may sum past 2^32) *)
Theorem C09_time_code_exact : forall cs ds, lenN cs = lenN ds -> forallb is_u32 ds = true ->
  forall n ts, 1 <= n -> n <= sumN cs -> n < 4294967296 -> 0 < ts -> ts < 4294967296 ->
  exists t, nthN (starts (expand_rl cs ds) 0) (n - 1) = Some t /\
            (1000000000 * t / ts < 9223372036854775808 -> stts_get_time_code cs ds n ts = Ok (S_time_code t ts)).
Proof. exact time_code_exact. Qed.
Print Assumptions C09_time_code_exact.
Example ex_time_code :
  stts_get_time_code (t_stts_count ex_tb) (t_stts_delta ex_tb) 6 90000 = Ok 611111%Z /\
  S_decode_time ex_tb 6 = Some 55 /\
  stts_get_time_code [4294967295; 4294967295] [4294967295; 7] 4294967295 4294967295 = Ok 4294967294000000000%Z /\
  stts_get_time_code [3] [5] 2 0 = Panic.
Proof. vm_compute. repeat split. Qed.

(* the pinned text (uint32 accumulator) is wrong from 2^32 units on: 500 samples of one second in a 10 MHz
   timescale, sample 431 starts at 430 s and GetTimeCode said 503.2704 ms (reproduced on the real code) *)
Theorem C09_time_code_pinned_refuted :
  exists cs ds n ts t, lenN cs = lenN ds /\ forallb is_u32 cs = true /\ forallb is_u32 ds = true /\
    1 <= n /\ n <= sumN cs /\ 0 < ts /\ ts < 4294967296 /\
    nthN (starts (expand_rl cs ds) 0) (n - 1) = Some t /\ 1000000000 * t / ts < 9223372036854775808 /\
    stts_get_time_code cs ds n ts = Ok (S_time_code t ts) /\
    stts_get_time_code_pinned cs ds n ts <> Ok (S_time_code t ts).
Proof. exact time_code_pinned_refuted. Qed.
Print Assumptions C09_time_code_pinned_refuted.

(* C09_builder_consistent without raw_ok (C09RowsProofs.v).
   raw_ok (no uint32 wrap in first chunk / samples per chunk / FirstSampleNr / number of rows) need not be assumed by
   the bridge: it follows from the shape of the table. rows_ok, first chunk 1, the runs holding N samples over C
   chunks, N + 1 < 2^32 and C + 1 < 2^32 give every arithmetic clause of raw_ok (each run has >= 1 chunk of >= 1
   sample, so samples per chunk <= N, FirstSampleNr <= N + 1, first chunks and the number of rows <= C).  What is left
   is the type of the ids: non-zero uint32 (ids_ok; the Go parameters are uint32 and id 0 is refused). *)
Theorem C09_raw_ok_from_shape : forall raw C n, is_u32 (C + 1) = true -> is_u32 (n + 1) = true ->
  rows_ok raw C = true -> ids_ok raw = true ->
  match raw with (fc, _, _) :: _ => fc = 1 | [] => False end ->
  sumN (chunk_counts (S_entries raw) C) = n ->
  raw_ok raw = true.
Proof. exact raw_ok_of_rows. Qed.
Print Assumptions C09_raw_ok_from_shape.

Theorem C09_builder_consistent_rows : forall tb craw0 ccalls sraw0 sb0 scalls,
  is_u32 (nsamples tb + 1) = true -> stts_ok tb = true -> stsz_ok tb = true -> offsets_ok tb = true ->
  stss_ok tb = true -> sdtp_ok tb = true ->
  (t_ctts tb = None \/
   (t_ctts tb = Some (ctts_run (ctts_decode craw0) ccalls) /\
    sumN (map fst (craw0 ++ ctts_table ccalls)) = nsamples tb)) ->
  stsc_decode sraw0 = Ok sb0 ->
  t_stsc tb = stsc_run sb0 scalls ->
  ids_ok (stsc_table sraw0 scalls) = true -> rows_ok (stsc_table sraw0 scalls) (nchunks tb) = true ->
  match stsc_table sraw0 scalls with (fc, _, _) :: _ => fc = 1 | [] => False end ->
  sumN (chunk_counts (S_entries (stsc_table sraw0 scalls)) (nchunks tb)) = nsamples tb ->
  consistent tb = true.
Proof. exact builder_consistent_rows. Qed.
Print Assumptions C09_builder_consistent_rows.
(* the hypotheses are those of C09_builder_consistent with raw_ok weakened (raw_ok implies ids_ok), satisfied by the
   histories of ex_histories; the wrap-around table of C09_stsc_cache_wrap_refuted (2^31 samples per chunk over 2
   chunks) has ids_ok and rows_ok but more than 2^32 samples *)
Theorem C09_raw_ok_ids : forall raw, raw_ok raw = true -> ids_ok raw = true.
Proof. exact raw_ok_ids. Qed.
Print Assumptions C09_raw_ok_ids.
Example ex_rows :
  ids_ok (stsc_table [] ex_stsc_calls) = true /\ is_u32 (nchunks ex_tb + 1) = true /\
  ids_ok [(1, 2147483648, 1); (3, 1, 1)] = true /\ rows_ok [(1, 2147483648, 1); (3, 1, 1)] 3 = true /\
  raw_ok [(1, 2147483648, 1); (3, 1, 1)] = false /\
  sumN (chunk_counts (S_entries [(1, 2147483648, 1); (3, 1, 1)]) 3) = 4294967297.
Proof. vm_compute. repeat split. Qed.

(* GetTimeCode outside 1..N (C09TimeCodePastProofs.v).
   Unlike GetDecodeTime (C09_decode_time_past_end: Panic) GetTimeCode has an answer for sample number 0 and for
   every number past the last sample, for EVERY table with fewer than 2^32 samples: the time code of the END of
   the track (sum of all durations) - no panic, and there is no error result.  Outside the property's range; stated
   so that the behaviour the correspondence compares there is a theorem and not only a transcription. *)
Theorem C09_time_code_past_end : forall cs ds n ts, lenN cs = lenN ds -> forallb is_u32 ds = true ->
  sumN cs < 4294967296 -> n = 0 \/ sumN cs < n -> n < 4294967296 -> 0 < ts -> ts < 4294967296 ->
  1000000000 * sumN (expand_rl cs ds) / ts < 9223372036854775808 ->
  stts_get_time_code cs ds n ts = Ok (S_time_code (sumN (expand_rl cs ds)) ts).
Proof. exact time_code_past_end. Qed.
Print Assumptions C09_time_code_past_end.
Example ex_time_code_past_end :
  sumN (expand_rl (t_stts_count ex_tb) (t_stts_delta ex_tb)) = 65 /\
  stts_get_time_code (t_stts_count ex_tb) (t_stts_delta ex_tb) 0 1000 = Ok 65000000%Z /\
  stts_get_time_code (t_stts_count ex_tb) (t_stts_delta ex_tb) 8 1000 = Ok 65000000%Z /\
  stts_get_time_code (t_stts_count ex_tb) (t_stts_delta ex_tb) 4294967295 1000 = Ok 65000000%Z.
Proof. vm_compute. repeat split. Qed.
