(* C09CacheProofs.v — StscBox.GetSampleDescriptionID; the last entry of an stsc box. *)
From V.lib Require Import Base.
From V.c09 Require Import C09Model C09Spec C09BaseProofs C09SttsProofs C09StscProofs.

Definition last_opt (es : list stsc_entry) : option stsc_entry :=
  match rev es with [] => None | p :: _ => Some p end.

Lemma last_opt_snoc es e : last_opt (es ++ [e]) = Some e.
Proof. unfold last_opt. rewrite rev_unit. reflexivity. Qed.

Lemma chunks_per_entry_cons e rest C :
  chunks_per_entry (e :: rest) C = (next_chunk (e :: rest) C 0 - first_chunk e) :: chunks_per_entry rest C.
Proof. rewrite next_chunk_0. destruct rest; reflexivity. Qed.

Lemma expand_cpe_at {A} es C : entries_ok es C = true -> forall (vals : list A) e0 i e c v,
  nthN es 0 = Some e0 -> nthN es i = Some e -> first_chunk e <= c < next_chunk es C i ->
  nthN vals i = Some v ->
  nthN (expand_rl (chunks_per_entry es C) vals) (c - first_chunk e0) = Some v.
Proof.
  induction es as [|e1 rest IH]; intros Hok vals e0 i e c v H0 Hi Hc Hv; [discriminate|].
  cbn [nthN N.eqb] in H0. injection H0 as <-.
  destruct vals as [|v1 vals']; [discriminate|].
  rewrite chunks_per_entry_cons. cbn [expand_rl]. rewrite nthN_app, lenN_repeat.
  destruct (entries_ok_at _ _ Hok 0 e1 eq_refl) as [S1 [N1 F1]].
  cbn [nthN] in Hi, Hv. destruct (i =? 0) eqn:E.
  - injection Hi as <-. injection Hv as <-. replace i with 0 in Hc by lia.
    destruct (c - first_chunk e1 <? N.of_nat (N.to_nat (next_chunk (e1 :: rest) C 0 - first_chunk e1))) eqn:E1; [|lia].
    rewrite nthN_repeat, E1. reflexivity.
  - rewrite next_chunk_tail in Hc by lia.
    destruct rest as [|e2 r]; [discriminate|].
    rewrite next_chunk_0 in *.
    destruct (entries_sorted _ _ (entries_ok_tail _ _ _ Hok) 0 (i - 1) e2 e) as [_ Q]; [lia|reflexivity|exact Hi|].
    destruct (c - first_chunk e1 <? N.of_nat (N.to_nat (first_chunk e2 - first_chunk e1))) eqn:E1; [lia|].
    replace (c - first_chunk e1 - N.of_nat (N.to_nat (first_chunk e2 - first_chunk e1))) with (c - first_chunk e2) by lia.
    apply (IH (entries_ok_tail _ _ _ Hok) vals' e2 (i - 1) e c v eq_refl Hi Hc Hv).
Qed.

Lemma nthN_entry_ids b : forall es k j, j < lenN es ->
  nthN (entry_ids b k es) j =
  Some (if sc_single b =? 0 then match nthN (sc_ids b) (k + j) with Some x => x | None => 0 end else sc_single b).
Proof.
  induction es as [|e t IH]; intros k j Hj; [rewrite lenN_nil in Hj; lia|].
  rewrite lenN_cons in Hj. cbn [entry_ids nthN]. destruct (j =? 0) eqn:E.
  - replace (k + j) with k by lia. reflexivity.
  - rewrite IH by lia. replace (k + 1 + (j - 1)) with (k + j) by lia. reflexivity.
Qed.

Lemma sample_description_id_correct tb : consistent tb = true -> forall c, 1 <= c <= nchunks tb ->
  exists id, S_sample_description_id tb c = Some id /\ stsc_get_sample_description_id (t_stsc tb) c = Ok id.
Proof.
  intros H c Hc.
  destruct (stsc_facts tb H) as [e0 [H0 [Hc0 [_ [Hok [_ [_ [HC [_ _]]]]]]]]].
  destruct (consistent_parts tb H) as [_ [_ [_ [Hsc _]]]]. unfold stsc_ok in Hsc.
  apply andb_prop in Hsc. destruct Hsc as [Hsc _]. apply andb_prop in Hsc. destruct Hsc as [Hsc _].
  apply andb_prop in Hsc. destruct Hsc as [_ Hids].
  destruct (chunk_lookup tb H c Hc) as [i [e [Hf [He Hin]]]].
  pose proof (nthN_Some_lt _ _ _ He) as Hi.
  pose proof (nthN_entry_ids (t_stsc tb) (sc_entries (t_stsc tb)) 0 i Hi) as Hv.
  pose proof (expand_cpe_at _ _ Hok _ e0 i e c _ H0 He Hin Hv) as Hx. rewrite Hc0 in Hx.
  unfold S_sample_description_id, stsc_get_sample_description_id.
  destruct (c =? 0) eqn:E0; [lia|]. rewrite Hx.
  destruct (sc_single (t_stsc tb) =? 0) eqn:Es; cbn [negb].
  - assert (Hl : lenN (sc_ids (t_stsc tb)) = lenN (sc_entries (t_stsc tb))) by lia.
    destruct (nthN_lt_Some (sc_ids (t_stsc tb)) i) as [x Hxi]; [lia|].
    cbn [N.add]. rewrite Hxi. exists x. split; [reflexivity|].
    rewrite u32_small by lia. rewrite Hf. cbn [rbind]. apply idx_Some, Hxi.
  - eexists. split; reflexivity.
Qed.
