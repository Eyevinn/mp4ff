(* C09PureProofs.v — no query changes the box state; the state-threaded composite queries compute what the
   plain model functions (the ones the query theorems are about) compute; a sequence of queries therefore gives,
   for each query, its answer on the initial state — whatever was asked before. *)
From V.lib Require Import Base.
From V.c09 Require Import C09Model C09PureModel.

(* m returns the state it was given and computes f of the tables *)
Definition agrees {A} (m : M A) (f : tables -> res A) : Prop := forall s, m s = (f (f_tb s), s).
Definition pure {A} (m : M A) : Prop := forall s, snd (m s) = s.

Lemma agrees_pure {A} (m : M A) f : agrees m f -> pure m.
Proof. intros H s. rewrite H. reflexivity. Qed.

Lemma agrees_leaf {A} (f : tables -> res A) : agrees (leaf f) f.
Proof. intros s. reflexivity. Qed.

Lemma agrees_ret {A} (a : A) : agrees (retM a) (fun _ => Ok a).
Proof. intros s. reflexivity. Qed.

Lemma agrees_fail {A} (r : res A) : agrees (failM r) (fun _ => r).
Proof. intros s. reflexivity. Qed.

Lemma agrees_bind {A B} (m : M A) (k : A -> M B) f g :
  agrees m f -> (forall a, agrees (k a) (g a)) ->
  agrees (bindM m k) (fun tb => rbind (f tb) (fun a => g a tb)).
Proof.
  intros Hm Hk s. unfold bindM. rewrite Hm. destruct (f (f_tb s)) as [a| | |]; cbn [rbind]; [apply Hk|reflexivity..].
Qed.

Lemma agrees_ext {A} (m : M A) f g : agrees m f -> (forall tb, f tb = g tb) -> agrees m g.
Proof. intros H E s. rewrite H, E. reflexivity. Qed.

Lemma pure_ret {A} (a : A) : pure (retM a).
Proof. intros s. reflexivity. Qed.

Lemma pure_bind {A B} (m : M A) (k : A -> M B) : pure m -> (forall a, pure (k a)) -> pure (bindM m k).
Proof.
  intros Hm Hk s. unfold bindM. specialize (Hm s). destruct (m s) as [[a| | |] s']; cbn [snd] in *; subst s';
    [apply Hk|reflexivity..].
Qed.

Lemma sample_of_agrees nr : agrees (sample_of_st nr) (fun tb => sample_of tb nr).
Proof.
  unfold sample_of_st, sample_of.
  repeat (apply agrees_bind; [apply agrees_leaf|intros ?]). apply agrees_ret.
Qed.

Lemma samples_loop_agrees n : forall nr, agrees (samples_loop_st n nr) (fun tb => samples_loop tb n nr).
Proof.
  induction n as [|n IH]; intros nr; cbn [samples_loop_st samples_loop]; [apply agrees_ret|].
  apply agrees_bind; [apply sample_of_agrees|intros s0].
  apply agrees_bind; [apply IH|intros rest]. apply agrees_ret.
Qed.

Lemma get_sample_data_agrees a b : agrees (get_sample_data_st a b) (fun tb => trak_get_sample_data tb a b).
Proof.
  intros s. unfold get_sample_data_st, bindM, leaf, trak_get_sample_data.
  destruct ((a <? 1) || (trak_nr_samples (f_tb s) <? b)); [reflexivity|].
  destruct (b + 1 <? a); [reflexivity|]. apply samples_loop_agrees.
Qed.

Lemma ranges_loop_agrees a b chunks : forall first,
  agrees (ranges_loop_st a b first chunks) (fun tb => ranges_loop tb a b first chunks).
Proof.
  induction chunks as [|c rest IH]; intros first; cbn [ranges_loop_st ranges_loop]; [apply agrees_ret|].
  apply agrees_bind; [apply agrees_leaf|intros off].
  apply agrees_bind.
  - destruct first.
    + apply agrees_bind; [apply agrees_leaf|intros up]. apply agrees_ret.
    + apply agrees_ret.
  - intros [off' startIn].
    apply agrees_bind; [apply agrees_leaf|intros size].
    apply agrees_bind; [apply IH|intros more]. apply agrees_ret.
Qed.

Lemma get_ranges_agrees a b : agrees (get_ranges_st a b) (fun tb => trak_get_ranges tb a b).
Proof.
  intros s. unfold get_ranges_st, bindM at 1, leaf at 1, trak_get_ranges.
  destruct ((a <? 1) || (trak_nr_samples (f_tb s) <? b)); [reflexivity|].
  apply (agrees_bind _ _ (fun tb => stsc_get_containing_chunks (sc_entries (t_stsc tb)) a b)
                     (fun chunks tb => ranges_loop tb a b true chunks)).
  - apply agrees_leaf.
  - intros chunks. apply ranges_loop_agrees.
Qed.

Lemma add_sizes_pure n : forall nr acc, pure (add_sizes_st n nr acc).
Proof.
  induction n as [|n IH]; intros nr acc; cbn [add_sizes_st]; [apply pure_ret|].
  apply pure_bind; [apply (agrees_pure _ _ (agrees_leaf _))|intros sz; apply IH].
Qed.

Lemma copy_loop_pure a b chunks : forall first, pure (copy_loop_st a b first chunks).
Proof.
  induction chunks as [|c rest IH]; intros first; cbn [copy_loop_st]; [apply pure_ret|].
  apply pure_bind; [apply (agrees_pure _ _ (agrees_leaf _))|intros off].
  apply pure_bind.
  - destruct first; [|apply pure_ret]. apply pure_bind; [apply add_sizes_pure|intros o; apply pure_ret].
  - intros [off' startNr]. apply pure_bind; [apply add_sizes_pure|intros size].
    apply pure_bind.
    + intros s. destruct (0 <? f_mdat_lazy s); [reflexivity|].
      destruct ((u64 (sub64 off' (f_mdat_start s + 8) + size) <? sub64 off' (f_mdat_start s + 8))
                || (lenN (f_mdat_data s) <? u64 (sub64 off' (f_mdat_start s + 8) + size))); reflexivity.
    + intros _. apply pure_bind; [apply IH|intros more; apply pure_ret].
Qed.

Lemma copy_pure : forall rs a b, pure (copy_sample_data_st rs a b).
Proof.
  intros rs a b s. unfold copy_sample_data_st.
  destruct (f_frag s); [reflexivity|]. destruct ((0 <? f_mdat_lazy s) && negb rs); [reflexivity|].
  apply pure_bind; [apply (agrees_pure _ _ (agrees_leaf _))|intros chunks].
  destruct (t_stco (f_tb s)), (t_co64 (f_tb s)); try apply copy_loop_pure. intros s'. reflexivity.
Qed.

Lemma amap_pure {A} (f : A -> answer) (m : M A) : pure m -> pure (amap f m).
Proof. intros H. apply pure_bind; [exact H|intros x; apply pure_ret]. Qed.

Lemma queries_pure : forall q s, run q s = (eval q s, s).
Proof.
  intros q s. unfold eval. rewrite (surjective_pairing (run q s)) at 1. f_equal.
  revert s. change (pure (run q)).
  destruct q; cbn [run]; apply amap_pure;
    try (apply (agrees_pure _ _ (agrees_leaf _))).
  - apply (agrees_pure _ _ (get_sample_data_agrees a b)).
  - apply (agrees_pure _ _ (get_ranges_agrees a b)).
  - apply copy_pure.
Qed.

(* the state-threaded composite queries answer what the plain model functions of the query theorems answer *)
Lemma composite_answers : forall a b s,
  eval (QSampleData a b) s = rbind (trak_get_sample_data (f_tb s) a b) (fun l => Ok (ASamples l)) /\
  eval (QRanges a b) s = rbind (trak_get_ranges (f_tb s) a b) (fun l => Ok (ARanges l)).
Proof.
  intros a b s. unfold eval. cbn [run]. unfold amap, bindM.
  rewrite (get_sample_data_agrees a b s), (get_ranges_agrees a b s). cbn [fst].
  split; [destruct (trak_get_sample_data (f_tb s) a b)|destruct (trak_get_ranges (f_tb s) a b)]; reflexivity.
Qed.

(* order independence: in ANY sequence of queries on the same boxes every query gets the answer it gets on the
   initial state, and the state at the end is the initial state *)
Lemma run_all_pure : forall qs s, run_all qs s = (map (fun q => eval q s) qs, s).
Proof.
  induction qs as [|q t IH]; intros s; [reflexivity|].
  cbn [run_all map]. rewrite queries_pure, IH. reflexivity.
Qed.
