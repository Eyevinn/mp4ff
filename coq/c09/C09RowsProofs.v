(* C09RowsProofs.v — the arithmetic part of raw_ok follows from the table's shape and N + 1 < 2^32:
   C09_builder_consistent without the hypothesis raw_ok (only the description ids still have to be non-zero uint32). *)
From V.lib Require Import Base.
From V.c09 Require Import C09Model C09Spec C09BaseProofs C09BuildModel C09BuildStscProofs C09RowsModel.
Open Scope N_scope.

Lemma rows_head_len C : forall raw fc sp sdi, rows_ok ((fc, sp, sdi) :: raw) C = true -> fc + lenN raw <= C.
Proof.
  induction raw as [|[[fc' sp'] sdi'] t IH]; intros fc sp sdi H; cbn [rows_ok] in H.
  - rewrite lenN_nil. lia.
  - apply andb_prop in H. destruct H as [_ H]. apply andb_prop in H. destruct H as [H1 H2].
    specialize (IH fc' sp' sdi' H2). rewrite lenN_cons. lia.
Qed.

Lemma rows_tail C r raw : rows_ok (r :: raw) C = true -> rows_ok raw C = true.
Proof.
  destruct r as [[fc sp] sdi]. destruct raw as [|[[fc' sp'] sdi'] t]; [reflexivity|].
  intros H. cbn [rows_ok] in H. apply andb_prop in H. destruct H as [_ H]. apply andb_prop in H. destruct H as [_ H].
  exact H.
Qed.

Definition head_acc (prev : option stsc_entry) (fc : N) : N :=
  match prev with None => 1 | Some p => first_sample p + (fc - first_chunk p) * spc p end.

Lemma raw_ok_from_rows C : C < 4294967296 -> forall raw prev, rows_ok raw C = true -> ids_ok raw = true ->
  match raw with
  | [] => True
  | (fc, _, _) :: _ =>
    match prev with None => True | Some p => first_chunk p <= fc end /\
    head_acc prev fc + sumN (chunk_counts (S_entries_from prev raw) C) < 4294967296
  end ->
  raw_ok_from prev raw = true.
Proof.
  intros HC. induction raw as [|[[fc sp] sdi] t IH]; intros prev Hrows Hids Hinv; [reflexivity|].
  destruct Hinv as [Hord Hsum].
  pose proof (rows_head_len C t fc sp sdi Hrows) as Hfc.
  pose proof (rows_tail C _ _ Hrows) as Hrt.
  cbn [ids_ok forallb snd] in Hids. apply andb_prop in Hids. destruct Hids as [Hid Hids].
  apply andb_prop in Hid. destruct Hid as [Hid1 Hid2].
  cbn [rows_ok] in Hrows. apply andb_prop in Hrows. destruct Hrows as [Hsp Hrows].
  cbn [S_entries_from] in Hsum. fold (head_acc prev fc) in Hsum.
  set (A := head_acc prev fc) in *.
  cbn [raw_ok_from]. fold (head_acc prev fc). fold A.
  (* the run of this row has at least one chunk of sp samples, so sp and A are below the bound on the sum *)
  assert (Hb : sp < 4294967296 /\ A < 4294967296 /\ raw_ok_from (Some (mkEntry fc sp A)) t = true).
  { destruct t as [|[[fc' sp'] sdi'] t'].
    - cbn [S_entries_from chunk_counts first_chunk spc] in Hsum.
      rewrite sumN_app, sumN_repeat in Hsum. cbn [sumN] in Hsum.
      assert (Hk : 1 <= N.of_nat (N.to_nat (C + 1 - fc))) by lia.
      assert (Hs : sp <= N.of_nat (N.to_nat (C + 1 - fc)) * sp) by nia.
      split; [lia|]. split; [lia|reflexivity].
    - apply andb_prop in Hrows. destruct Hrows as [Hlt Hrows].
      cbn [S_entries_from] in Hsum. cbn [chunk_counts first_chunk spc] in Hsum.
      rewrite sumN_app, sumN_repeat in Hsum.
      assert (Hk : 1 <= N.of_nat (N.to_nat (fc' - fc))) by lia.
      assert (Hs : sp <= N.of_nat (N.to_nat (fc' - fc)) * sp) by nia.
      split; [lia|]. split; [lia|].
      apply IH; [exact Hrt|exact Hids|]. split; [cbn [first_chunk]; lia|].
      unfold head_acc.
      cbn [S_entries_from chunk_counts first_sample first_chunk spc] in Hsum |- *.
      replace (N.of_nat (N.to_nat (fc' - fc))) with (fc' - fc) in Hsum by lia. lia. }
  destruct Hb as [Hsp32 [HA32 Ht]]. rewrite Ht. unfold is_u32 in *.
  replace (fc <? 4294967296) with true by lia. replace (sp <? 4294967296) with true by lia.
  rewrite Hid1, Hid2. replace (A <? 4294967296) with true by lia.
  destruct prev as [p|]; cbv beta iota in Hord; [replace (first_chunk p <=? fc) with true by lia|]; reflexivity.
Qed.

Lemma raw_ok_of_rows raw C n : is_u32 (C + 1) = true -> is_u32 (n + 1) = true ->
  rows_ok raw C = true -> ids_ok raw = true ->
  match raw with (fc, _, _) :: _ => fc = 1 | [] => False end ->
  sumN (chunk_counts (S_entries raw) C) = n ->
  raw_ok raw = true.
Proof.
  intros HC Hn Hrows Hids H1 Hsum. unfold is_u32 in HC, Hn. unfold raw_ok.
  destruct raw as [|[[fc sp] sdi] t]; [contradiction|]. subst fc.
  rewrite (raw_ok_from_rows C ltac:(lia) _ None Hrows Hids).
  - pose proof (rows_head_len C t 1 sp sdi Hrows). rewrite lenN_cons. unfold is_u32.
    replace (1 + lenN t <? 4294967296) with true by lia. reflexivity.
  - split; [exact I|]. unfold head_acc. unfold S_entries in Hsum. lia.
Qed.

Lemma builder_consistent_rows : forall tb craw0 ccalls sraw0 sb0 scalls,
  is_u32 (nsamples tb + 1) = true -> stts_ok tb = true -> stsz_ok tb = true -> offsets_ok tb = true ->
  stss_ok tb = true -> sdtp_ok tb = true ->
  (t_ctts tb = None \/
   (t_ctts tb = Some (ctts_run (ctts_decode craw0) ccalls) /\
    sumN (map fst (craw0 ++ ctts_table ccalls)) = nsamples tb)) ->
  stsc_decode sraw0 = Ok sb0 ->
  t_stsc tb = stsc_run sb0 scalls ->
  ids_ok (stsc_table sraw0 scalls) = true -> rows_ok (stsc_table sraw0 scalls) (nchunks tb) = true ->
  match stsc_table sraw0 scalls with (fc, _, _) :: _ => fc = 1 | [] => False end ->
  sumN (chunk_counts (S_entries (stsc_table sraw0 scalls)) (nchunks tb)) = nsamples tb ->
  consistent tb = true.
Proof.
  intros tb craw0 ccalls sraw0 sb0 scalls Hu Htt Hsz Hof Hss Hsd Hct H0 Hb Hids Hrows H1 Hsum.
  apply (builder_consistent tb craw0 ccalls sraw0 sb0 scalls); try assumption.
  apply (raw_ok_of_rows _ (nchunks tb) (nsamples tb)); try assumption.
  unfold offsets_ok in Hof. apply andb_prop in Hof. destruct Hof as [_ Hof]. exact Hof.
Qed.

(* so builder_consistent_rows has the weaker hypotheses *)
Lemma raw_ok_from_ids : forall raw prev, raw_ok_from prev raw = true -> ids_ok raw = true.
Proof.
  induction raw as [|[[fc sp] sdi] t IH]; intros prev H; [reflexivity|].
  cbn [raw_ok_from] in H. apply andb_prop in H. destruct H as [H Hrec].
  apply andb_prop in H. destruct H as [H _]. apply andb_prop in H. destruct H as [H _].
  apply andb_prop in H. destruct H as [H Hd]. apply andb_prop in H. destruct H as [_ Hc].
  cbn [ids_ok forallb snd]. fold (ids_ok t). rewrite Hc, Hd, (IH _ Hrec). reflexivity.
Qed.
Lemma raw_ok_ids raw : raw_ok raw = true -> ids_ok raw = true.
Proof. unfold raw_ok. intros H. apply andb_prop in H. destruct H as [H _]. exact (raw_ok_from_ids _ _ H). Qed.
