(* C09TimeCodeProofs.v — SttsBox.GetTimeCode (C09TimeCodeModel.v) against the naive expansion. *)
From V.lib Require Import Base.
From V.c09 Require Import C09Model C09Spec C09BaseProofs C09SttsProofs C09TimeCodeModel.
Open Scope N_scope.

Lemma u64_lt x : u64 x < 18446744073709551616.
Proof. unfold u64. apply N.mod_lt. lia. Qed.

(* with no sample left to skip, GetDecodeTime's walk only passes empty runs *)
Lemma dt_loop_zero cs : forall ds acc t d, acc < 18446744073709551616 ->
  decode_time_loop cs ds 0 acc = Ok (t, d) -> t = acc.
Proof.
  induction cs as [|c cs IH]; intros ds acc t d Ha H; destruct ds as [|d0 ds]; cbn [decode_time_loop] in H;
    try discriminate.
  destruct (c <=? 0) eqn:E.
  - replace c with 0 in H by lia. rewrite N.mul_0_l, N.add_0_r, u64_small in H by assumption.
    replace (0 - 0) with 0 in H by lia. eapply IH; eauto.
  - replace (0 <? 0) with false in H by reflexivity. inversion H. reflexivity.
Qed.

(* the two walks accumulate the same number of units *)
Lemma tc_loop_of_dt cs : forall ds rem acc t d, acc < 18446744073709551616 ->
  decode_time_loop cs ds rem acc = Ok (t, d) -> time_code_loop cs ds rem acc = Ok t.
Proof.
  induction cs as [|c cs IH]; intros ds rem acc t d Ha H; destruct ds as [|d0 ds]; cbn [decode_time_loop] in H;
    try discriminate.
  cbn [time_code_loop].
  destruct (rem =? 0) eqn:E0.
  - replace rem with 0 in H by lia. f_equal. symmetry.
    apply (dt_loop_zero (c :: cs) (d0 :: ds) acc t d Ha). cbn [decode_time_loop]. exact H.
  - destruct (c <=? rem) eqn:E.
    + eapply IH; [|exact H]. apply u64_lt.
    + destruct (0 <? rem) eqn:E1; [|lia]. inversion H. reflexivity.
Qed.

(* int64 conversion is the identity on naturals below 2^63 *)
Lemma to_i64_N x : x < 9223372036854775808 -> to_i64 (Z.of_N x) = Z.of_N x.
Proof. intros H. unfold to_i64. rewrite Z.mod_small by lia. lia. Qed.

Lemma div_le_self a b : a / b <= a.
Proof. destruct b; [destruct a; cbn; lia|]. apply N.div_le_upper_bound; nia. Qed.

Lemma scaled_div_split k t ts : 0 < ts -> k * t / ts = k * (t / ts) + k * (t mod ts) / ts.
Proof.
  intros H. rewrite (N.div_mod t ts) at 1 by lia.
  replace (k * (ts * (t / ts) + t mod ts)) with (k * (t / ts) * ts + k * (t mod ts)) by ring.
  apply N.div_add_l. lia.
Qed.

(* seconds and remainder separately = floor(10^9 * t / ts), whenever that fits an int64: no intermediate value
   leaves the naturals below 2^63 (the seconds are below the result, the remainder is below the timescale, a uint32,
   so that remainder * 10^9 < 2^62), and there the int64 operations are those of N *)
Lemma time_code_value t ts : 0 < ts -> ts < 4294967296 -> 1000000000 * t / ts < 9223372036854775808 ->
  to_i64 (to_i64 (to_i64 (Z.of_N (t / ts)) * second_ns)
          + Z.quot (to_i64 (to_i64 (Z.of_N (t mod ts)) * second_ns)) (to_i64 (Z.of_N ts))) = S_time_code t ts.
Proof.
  intros H0 H1 H2. unfold S_time_code. change second_ns with (Z.of_N 1000000000).
  rewrite scaled_div_split in * by exact H0.
  pose proof (N.mod_lt t ts ltac:(lia)) as Hr.
  pose proof (div_le_self (1000000000 * (t mod ts)) ts) as Hw.
  rewrite (N.mul_comm 1000000000 (t / ts)), (N.mul_comm 1000000000 (t mod ts)) in *.
  set (q := t / ts) in *. set (r := t mod ts) in *. set (w := r * 1000000000 / ts) in *.
  rewrite (to_i64_N q), (to_i64_N r), (to_i64_N ts), <- !N2Z.inj_mul by lia.
  rewrite (to_i64_N (q * 1000000000)), (to_i64_N (r * 1000000000)), <- N2Z.inj_quot, <- N2Z.inj_add by lia.
  apply to_i64_N. exact H2.
Qed.

(* GetTimeCode on the bare columns *)
Lemma time_code_exact : forall cs ds, lenN cs = lenN ds -> forallb is_u32 ds = true ->
  forall n ts, 1 <= n -> n <= sumN cs -> n < 4294967296 -> 0 < ts -> ts < 4294967296 ->
  exists t, nthN (starts (expand_rl cs ds) 0) (n - 1) = Some t /\
            (1000000000 * t / ts < 9223372036854775808 -> stts_get_time_code cs ds n ts = Ok (S_time_code t ts)).
Proof.
  intros cs ds Hl Hd n ts H1 H2 H3 H4 H5.
  destruct (decode_time_exact cs ds Hl Hd n H1 H2 H3) as [t [d [Ht [_ Hg]]]].
  exists t. split; [exact Ht|]. intros Hfit.
  unfold stts_get_decode_time in Hg. destruct (n =? 0) eqn:E; [lia|].
  unfold stts_get_time_code.
  rewrite sub32_small by lia.
  rewrite (tc_loop_of_dt cs ds (n - 1) 0 t d ltac:(lia) Hg).
  destruct (ts =? 0) eqn:E1; [lia|].
  f_equal. apply time_code_value; assumption.
Qed.

(* ... and on consistent tables *)
Lemma time_code_correct : forall tb, consistent tb = true -> forall n ts, 1 <= n <= nsamples tb ->
  0 < ts -> ts < 4294967296 ->
  exists t, S_decode_time tb n = Some t /\
            (1000000000 * t / ts < 9223372036854775808 ->
             stts_get_time_code (t_stts_count tb) (t_stts_delta tb) n ts = Ok (S_time_code t ts)).
Proof.
  intros tb Hc n ts Hn H4 H5. destruct (stts_facts tb Hc) as [L [S [B _]]]. destruct (stts_u32 tb Hc) as [_ Hd].
  unfold S_decode_time. destruct (n =? 0) eqn:E; [lia|].
  apply time_code_exact; try assumption; lia.
Qed.

(* the pinned text is wrong from 2^32 units on *)
Lemma time_code_pinned_refuted :
  exists cs ds n ts t, lenN cs = lenN ds /\ forallb is_u32 cs = true /\ forallb is_u32 ds = true /\
    1 <= n /\ n <= sumN cs /\ 0 < ts /\ ts < 4294967296 /\
    nthN (starts (expand_rl cs ds) 0) (n - 1) = Some t /\ 1000000000 * t / ts < 9223372036854775808 /\
    stts_get_time_code cs ds n ts = Ok (S_time_code t ts) /\
    stts_get_time_code_pinned cs ds n ts <> Ok (S_time_code t ts).
Proof.
  exists [500], [10000000], 431, 10000000, 4300000000. vm_compute. repeat split; try reflexivity; try discriminate.
Qed.
