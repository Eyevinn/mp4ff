(* C09TrakProofs.v — TrakBox.GetSampleData and TrakBox.GetRangesForSampleInterval. *)
From V.lib Require Import Base.
From V.c09 Require Import C09Model C09Spec C09BaseProofs C09SttsProofs C09StscProofs C09CttsProofs.

Lemma flags_correct tb : consistent tb = true -> forall n, 1 <= n <= nsamples tb ->
  exists f, S_flags tb n = Some f /\ create_sample_flags (t_stss tb) (t_sdtp tb) n = Ok f.
Proof.
  intros H n Hn. destruct (consistent_parts tb H) as [_ [_ [_ [_ [_ [_ [_ Hsd]]]]]]].
  unfold S_flags, create_sample_flags.
  (* the sync part of the two agrees; the sdtp entry, if the box is there, exists *)
  replace (match t_stss tb with
           | None => Ok (false, 0)
           | Some l => do isSync <- stss_is_sync l n; Ok (negb isSync, if isSync then 2 else 0)
           end)
    with (Ok (match t_stss tb with
              | None => (false, 0)
              | Some l => if S_is_sync l n then (false, 2) else (true, 0)
              end))
    by (destruct (t_stss tb) as [l|] eqn:E; [rewrite (is_sync_correct_tb tb l H E); destruct (S_is_sync l n)|]; reflexivity).
  cbn [rbind]. destruct (match t_stss tb with None => _ | Some l => _ end) as [nonSync dep].
  unfold sdtp_ok in Hsd. destruct (t_sdtp tb) as [d|]; [|eexists; split; reflexivity].
  apply andb_prop in Hsd. destruct Hsd as [Hlen _].
  destruct (n =? 0) eqn:E0; [lia|].
  destruct (nthN_lt_Some d (n - 1)) as [e He]; [lia|].
  rewrite He, (idx_m1_Some d n e ltac:(lia) He). cbn [rbind]. eexists; split; reflexivity.
Qed.

Lemma sample_of_correct tb : consistent tb = true -> forall n, 1 <= n <= nsamples tb ->
  exists s, S_meta tb n = Some s /\ sample_of tb n = Ok s.
Proof.
  intros H n Hn. unfold S_meta, sample_of.
  destruct (flags_correct tb H n Hn) as [f [Hf1 Hf2]].
  destruct (dur_correct tb H n Hn) as [d [Hd1 Hd2]].
  destruct (size_correct tb H n Hn) as [s [Hs1 Hs2]].
  rewrite Hf1, Hd1, Hs1, Hf2, Hd2, Hs2.
  destruct (t_ctts tb) as [c|] eqn:Ec.
  - destruct (cto_correct tb c H Ec n Hn) as [x [Hx1 Hx2]]. rewrite Hx1, Hx2. cbn [rbind]. eauto.
  - cbn [rbind]. eauto.
Qed.

Lemma samples_loop_ok tb : consistent tb = true -> forall k nr, 1 <= nr -> nr + N.of_nat k <= nsamples tb + 1 ->
  exists l, samples_loop tb k nr = Ok l /\ map Some l = map (S_meta tb) (seqN nr k).
Proof.
  intros H. induction k as [|k IH]; intros nr H1 H2.
  - exists []. split; reflexivity.
  - destruct (sample_of_correct tb H nr ltac:(lia)) as [s [Hs1 Hs2]].
    destruct (IH (nr + 1) ltac:(lia) ltac:(lia)) as [l [Hl Hm]].
    exists (s :: l). cbn [samples_loop seqN map]. rewrite Hs2, Hl, Hs1, Hm. split; reflexivity.
Qed.

Lemma sample_data_correct tb : consistent tb = true -> forall a b, 1 <= a -> a <= b + 1 -> b <= nsamples tb ->
  exists l, trak_get_sample_data tb a b = Ok l /\ map Some l = S_sample_data tb a b.
Proof.
  intros H a b Ha Hab Hb. unfold trak_get_sample_data, S_sample_data.
  rewrite (nr_samples_correct tb H).
  destruct (a <? 1) eqn:E1; [lia|]. destruct (nsamples tb <? b) eqn:E2; [lia|]. cbn [orb].
  destruct (b + 1 <? a) eqn:E3; [lia|].
  apply (samples_loop_ok tb H); lia.
Qed.

Lemma total_size_le tb a b : S_total_size tb a b <= sumN (sizes tb).
Proof.
  unfold S_total_size, sublist.
  pose proof (sumN_firstn_le (skipn (N.to_nat (a - 1)) (sizes tb)) (N.to_nat (b + 1 - a))).
  pose proof (sumN_skipn_le (sizes tb) (N.to_nat (a - 1))). lia.
Qed.

Lemma total_size_empty tb a : 1 <= a -> S_total_size tb a (a - 1) = 0.
Proof. intros. unfold S_total_size, sublist. replace (a - 1 + 1 - a) with 0 by lia. reflexivity. Qed.

Lemma offset_bound tb c o : consistent tb = true -> S_chunk_offset tb c = Some o ->
  o + sumN (sizes tb) < 18446744073709551616.
Proof.
  intros H Ho. destruct (consistent_parts tb H) as [_ [_ [_ [_ [_ [Hoo _]]]]]]. unfold offsets_ok in Hoo.
  apply andb_prop in Hoo. destruct Hoo as [Hoo _]. apply andb_prop in Hoo. destruct Hoo as [_ Hall].
  unfold S_chunk_offset in Ho. destruct (c =? 0); [discriminate|].
  rewrite forallb_forall in Hall.
  assert (In o (offsets tb)).
  { clear - Ho. revert Ho. generalize (c - 1). induction (offsets tb) as [|x t IH]; intros k Hk; [discriminate|].
    cbn [nthN] in Hk. destruct (k =? 0); [injection Hk as ->; left; reflexivity|right; eapply IH; eauto]. }
  specialize (Hall o H0). lia.
Qed.

(* samples a .. b lie in the chunks ca .. cb: the wanted samples of chunk c begin with a in the first of them and
   with the chunk otherwise, and end with b in the last of them and with the chunk otherwise *)
Lemma range_bounds tb a b ca cb cnta cntb c cnt :
  S_chunk_count tb ca = Some cnta -> S_first_in_chunk tb ca <= a < S_first_in_chunk tb ca + cnta ->
  S_chunk_count tb cb = Some cntb -> S_first_in_chunk tb cb <= b < S_first_in_chunk tb cb + cntb ->
  1 <= ca <= c -> c <= cb -> S_chunk_count tb c = Some cnt ->
  N.max a (S_first_in_chunk tb c) = (if c =? ca then a else S_first_in_chunk tb c) /\
  N.min b (S_first_in_chunk tb c + cnt - 1) = (if c =? cb then b else S_first_in_chunk tb c + cnt - 1).
Proof.
  intros Hcnta Ha Hcntb Hb Hca Hcb Hcnt. split.
  - destruct (c =? ca) eqn:E; [replace c with ca by lia; lia|].
    pose proof (fic_succ tb ca cnta ltac:(lia) Hcnta). pose proof (fic_mono tb (ca + 1) c ltac:(lia)). lia.
  - destruct (c =? cb) eqn:E.
    + replace cb with c in * by lia. rewrite Hcnt in Hcntb. injection Hcntb as <-. lia.
    + pose proof (fic_succ tb c cnt ltac:(lia) Hcnt). pose proof (fic_mono tb (c + 1) cb ltac:(lia)). lia.
Qed.

Lemma ranges_loop_ok tb a b ca cb cnta cntb : consistent tb = true -> 1 <= a -> a <= b -> b <= nsamples tb ->
  1 <= ca -> cb <= nchunks tb ->
  S_chunk_count tb ca = Some cnta -> S_first_in_chunk tb ca <= a < S_first_in_chunk tb ca + cnta ->
  S_chunk_count tb cb = Some cntb -> S_first_in_chunk tb cb <= b < S_first_in_chunk tb cb + cntb ->
  forall m c l, ca <= c -> c + N.of_nat m = cb + 1 -> map Some l = map (S_chunk tb) (seqN c m) ->
  exists rl, ranges_loop tb a b (c =? ca) l = Ok rl /\ map Some rl = map (S_range tb a b) (seqN c m).
Proof.
  intros H Ha Hab Hb Hca Hcb Hcnta Hina Hcntb Hinb.
  destruct (stsc_facts tb H) as [_ [_ [_ [_ [_ [_ [HN _]]]]]]].
  induction m as [|m IH]; intros c l Hc Hm Hl; (destruct l as [|ch l']; try discriminate);
    [exists []; split; reflexivity|].
  cbn [seqN map] in Hl. injection Hl as Hch Hl'.
  destruct (get_chunk_correct tb H c ltac:(lia)) as [cnt [Hcnt [_ [Hbd _]]]].
  unfold S_chunk in Hch. rewrite Hcnt in Hch. injection Hch as ->.
  destruct (get_offset_correct tb H c ltac:(lia)) as [o [Ho1 Ho2]].
  pose proof (offset_bound tb c o H Ho1) as Hob.
  destruct (range_bounds tb a b ca cb cnta cntb c cnt Hcnta Hina Hcntb Hinb ltac:(lia) ltac:(lia) Hcnt)
    as [Hfrom Hto].
  assert (Hfic1 : 1 <= S_first_in_chunk tb c) by (unfold S_first_in_chunk; lia).
  destruct (IH (c + 1) l' ltac:(lia) ltac:(lia) Hl') as [rl [Hrl Hrm]].
  replace (c + 1 =? ca) with false in Hrl by lia. clear IH Hcnta Hina Hcntb Hinb Hca Hcb.
  cbn [ranges_loop seqN map ch_nr ch_start ch_n]. rewrite Ho2, Hrl, <- Hrm. cbn [rbind].
  rewrite (u32_small (S_first_in_chunk tb c + cnt)), (sub32_small (S_first_in_chunk tb c + cnt)),
    (u32_small (S_first_in_chunk tb c + cnt - 1)) by lia.
  (* no chunk is left behind c exactly when c is the last one *)
  replace (match l' with [] => b | _ :: _ => S_first_in_chunk tb c + cnt - 1 end)
    with (if c =? cb then b else S_first_in_chunk tb c + cnt - 1)
    by (destruct m; destruct l'; try discriminate;
        [replace (c =? cb) with true by lia|replace (c =? cb) with false by lia]; reflexivity).
  unfold S_range. rewrite Ho1, Hcnt. cbn zeta. rewrite Hfrom, Hto.
  assert (Hend : (if c =? cb then b else S_first_in_chunk tb c + cnt - 1) <= nsamples tb)
    by (destruct (c =? cb); lia).
  destruct (c =? ca) eqn:Eca.
  - pose proof (total_size_le tb (S_first_in_chunk tb c) (a - 1)).
    rewrite sub32_small, (total_size_correct tb H) by lia. cbn [rbind].
    rewrite u64_small, (total_size_correct tb H) by lia. cbn [rbind]. eexists. split; reflexivity.
  - cbn [rbind]. rewrite (total_size_correct tb H), total_size_empty, N.add_0_r by lia. cbn [rbind].
    eexists. split; reflexivity.
Qed.

Lemma ranges_correct tb : consistent tb = true -> forall a b, 1 <= a -> a <= b -> b <= nsamples tb ->
  exists rl, trak_get_ranges tb a b = Ok rl /\ S_ranges tb a b = Some (map Some rl).
Proof.
  intros H a b Ha Hab Hb.
  destruct (containing_chunks_correct tb H a b Ha Hab Hb) as [ca [cb [l [Hca [Hcb [H1 [H2 [H3 [Hl Hm]]]]]]]]].
  destruct (chunk_of_sample_correct tb H a ltac:(lia)) as [ca' [Hca' [_ [Hfa [[cnta [Hcnta Hla]] _]]]]].
  destruct (chunk_of_sample_correct tb H b ltac:(lia)) as [cb' [Hcb' [_ [Hfb [[cntb [Hcntb Hlb]] _]]]]].
  rewrite Hca in Hca'. injection Hca' as <-. rewrite Hcb in Hcb'. injection Hcb' as <-.
  destruct (ranges_loop_ok tb a b ca cb cnta cntb H Ha Hab Hb H1 H3 Hcnta ltac:(lia) Hcntb ltac:(lia)
                           (N.to_nat (cb + 1 - ca)) ca l ltac:(lia) ltac:(lia) Hm) as [rl [Hrl Hrm]].
  rewrite N.eqb_refl in Hrl.
  exists rl. unfold trak_get_ranges, S_ranges. rewrite (nr_samples_correct tb H).
  destruct (a <? 1) eqn:E1; [lia|]. destruct (nsamples tb <? b) eqn:E2; [lia|]. cbn [orb].
  rewrite Hl. cbn [rbind]. rewrite Hca, Hcb, <- Hrm. split; [exact Hrl|reflexivity].
Qed.

Lemma sample_data_pinned_panics : forall tb a b, 2 <= a -> a <= b -> b <= trak_nr_samples tb ->
  trak_get_sample_data_pinned tb a b = Panic.
Proof.
  intros tb a b Ha Hab Hb. unfold trak_get_sample_data_pinned.
  destruct (a <? 1) eqn:E1; [lia|]. destruct (trak_nr_samples tb <? b) eqn:E2; [lia|]. cbn [orb].
  destruct (b + 1 <? a) eqn:E3; [lia|]. destruct (2 <=? a) eqn:E4; [|lia]. destruct (a <=? b) eqn:E5; [|lia].
  reflexivity.
Qed.
