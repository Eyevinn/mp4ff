(* C09StscProofs.v — stsc: cached first-sample numbers, the two binary searches, chunk of a sample,
   chunk contents, containing chunks; stco/co64 (chunk offset). *)
From V.lib Require Import Base.
From V.c09 Require Import C09Model C09Spec C09BaseProofs C09SttsProofs.

Definition psum (l : list N) (k : N) : N := sumN (firstn (N.to_nat k) l).

Lemma psum_app l1 l2 k : psum (l1 ++ l2) k = psum l1 k + psum l2 (k - lenN l1).
Proof.
  unfold psum, lenN. rewrite firstn_app, sumN_app. do 3 f_equal. lia.
Qed.

Lemma psum_0 l : psum l 0 = 0.
Proof. reflexivity. Qed.

Lemma psum_cons x t k : 1 <= k -> psum (x :: t) k = x + psum t (k - 1).
Proof. intros H. unfold psum. replace (N.to_nat k) with (S (N.to_nat (k - 1))) by lia. reflexivity. Qed.

Lemma psum_repeat x m k : psum (repeat x m) k = N.min k (N.of_nat m) * x.
Proof.
  revert k; induction m as [|m IH]; intros k; [unfold psum; cbn [repeat]; rewrite firstn_nil; cbn [sumN]; lia|].
  destruct (N.eq_dec k 0) as [->|Hk]; [rewrite psum_0; lia|].
  cbn [repeat]. rewrite psum_cons, IH by lia. nia.
Qed.

Lemma psum_le l k : psum l k <= sumN l.
Proof. apply sumN_firstn_le. Qed.

Lemma psum_mono l k k' : k <= k' -> psum l k <= psum l k'.
Proof.
  intros H. unfold psum. replace (N.to_nat k) with (Nat.min (N.to_nat k) (N.to_nat k')) by lia.
  rewrite <- firstn_firstn. apply sumN_firstn_le.
Qed.

Lemma psum_all l k : lenN l <= k -> psum l k = sumN l.
Proof. unfold psum, lenN. intros. rewrite firstn_all2 by lia. reflexivity. Qed.

Lemma psum_succ l k x : nthN l k = Some x -> psum l (k + 1) = psum l k + x.
Proof.
  revert k; induction l as [|y t IH]; intros k H; [discriminate|].
  cbn [nthN] in H. rewrite psum_cons by lia. destruct (k =? 0) eqn:E.
  - injection H as ->. replace k with 0 by lia. rewrite !psum_0. lia.
  - rewrite (psum_cons y t k) by lia. replace (k + 1 - 1) with (k - 1 + 1) by lia. rewrite (IH (k - 1) H). lia.
Qed.

(* position j of sample_chunks belongs to chunk c0+k iff psum k <= j < psum (k+1) *)
Lemma sample_chunks_nth counts : forall c0 k cnt j,
  nthN counts k = Some cnt -> psum counts k <= j < psum counts k + cnt ->
  nthN (sample_chunks counts c0) j = Some (c0 + k).
Proof.
  induction counts as [|x t IH]; intros c0 k cnt j Hk Hj; [discriminate|].
  cbn [sample_chunks]. rewrite nthN_app, lenN_repeat. cbn [nthN] in Hk.
  destruct (k =? 0) eqn:E.
  - injection Hk as ->. replace k with 0 in * by lia. rewrite psum_0 in Hj.
    destruct (j <? N.of_nat (N.to_nat cnt)) eqn:E1; [|lia].
    rewrite nthN_repeat, E1. f_equal. lia.
  - rewrite psum_cons in Hj by lia.
    destruct (j <? N.of_nat (N.to_nat x)) eqn:E1; [lia|].
    rewrite (IH (c0 + 1) (k - 1) cnt (j - N.of_nat (N.to_nat x))); [f_equal; lia|exact Hk|lia].
Qed.

Lemma lenN_sample_chunks counts c0 : lenN (sample_chunks counts c0) = sumN counts.
Proof.
  revert c0; induction counts as [|x t IH]; intros c0; [reflexivity|].
  cbn [sample_chunks sumN]. rewrite lenN_app, lenN_repeat, IH. lia.
Qed.

Definition next_chunk (es : list stsc_entry) (C : N) (i : N) : N :=
  match nthN es (i + 1) with Some e' => first_chunk e' | None => C + 1 end.

Lemma entries_ok_tail e rest C : entries_ok (e :: rest) C = true -> entries_ok rest C = true.
Proof.
  cbn [entries_ok]. intros H. apply andb_prop in H. destruct H as [_ H].
  destruct rest as [|e' r]; [reflexivity|]. apply andb_prop in H. tauto.
Qed.

Lemma entries_ok_head e e' rest C : entries_ok (e :: e' :: rest) C = true ->
  1 <= spc e /\ first_chunk e < first_chunk e' /\
  first_sample e' = first_sample e + (first_chunk e' - first_chunk e) * spc e.
Proof.
  cbn [entries_ok]. intros H. apply andb_prop in H. destruct H as [H1 H].
  apply andb_prop in H. destruct H as [H _]. apply andb_prop in H. lia.
Qed.

Lemma entries_ok_last e C : entries_ok [e] C = true -> 1 <= spc e /\ first_chunk e <= C.
Proof. cbn [entries_ok]. intros H. apply andb_prop in H. lia. Qed.

Lemma next_chunk_0 e rest C :
  next_chunk (e :: rest) C 0 = match rest with [] => C + 1 | e' :: _ => first_chunk e' end.
Proof. unfold next_chunk. rewrite nthN_S. destruct rest; reflexivity. Qed.

Lemma next_chunk_tail e rest C i : 1 <= i -> next_chunk (e :: rest) C i = next_chunk rest C (i - 1).
Proof.
  intros H. unfold next_chunk. rewrite nthN_S. replace (i - 1 + 1) with i by lia. reflexivity.
Qed.

(* per-entry facts at index i *)
Lemma entries_ok_at es C : entries_ok es C = true -> forall i e, nthN es i = Some e ->
  1 <= spc e /\ first_chunk e < next_chunk es C i /\
  (forall e', nthN es (i + 1) = Some e' ->
              first_sample e' = first_sample e + (first_chunk e' - first_chunk e) * spc e).
Proof.
  induction es as [|e0 rest IH]; intros Hok i e Hi; [discriminate|].
  cbn [nthN] in Hi. destruct (i =? 0) eqn:E.
  - injection Hi as <-. replace i with 0 by lia. rewrite next_chunk_0, nthN_S.
    destruct rest as [|e' r].
    + destruct (entries_ok_last _ _ Hok). split; [lia|]. split; [lia|]. intros; discriminate.
    + destruct (entries_ok_head _ _ _ _ Hok) as [A [B D]].
      split; [lia|]. split; [lia|]. intros e'' He. cbn in He. injection He as <-. exact D.
  - destruct (IH (entries_ok_tail _ _ _ Hok) (i - 1) e Hi) as [A [B D]].
    split; [exact A|]. rewrite next_chunk_tail by lia. split; [exact B|].
    rewrite nthN_S. replace (i - 1 + 1) with i in D by lia. exact D.
Qed.

(* both search keys, first sample and first chunk, are sorted *)
Lemma entries_sorted es C : entries_ok es C = true -> forall i j ei ej, i <= j ->
  nthN es i = Some ei -> nthN es j = Some ej ->
  first_sample ei <= first_sample ej /\ first_chunk ei <= first_chunk ej.
Proof.
  induction es as [|e0 rest IH]; intros Hok i j ei ej Hij Hi Hj; [discriminate|].
  cbn [nthN] in Hi, Hj. destruct (j =? 0) eqn:Ej.
  - destruct (i =? 0) eqn:Ei; [|lia]. injection Hi as <-. injection Hj as <-. lia.
  - destruct (i =? 0) eqn:Ei.
    + injection Hi as <-. destruct rest as [|e' r]; [discriminate|].
      destruct (entries_ok_head _ _ _ _ Hok) as [A [B D]].
      destruct (IH (entries_ok_tail _ _ _ Hok) 0 (j - 1) e' ej) as [P Q]; [lia|reflexivity|exact Hj|].
      nia.
    + apply (IH (entries_ok_tail _ _ _ Hok) (i - 1) (j - 1)); [lia|exact Hi|exact Hj].
Qed.

(* first chunks increase strictly, so the entries behind entry j need a chunk each up to C *)
Lemma entries_room es C : entries_ok es C = true -> forall j x, nthN es j = Some x ->
  first_chunk x + (lenN es - j) <= C + 1.
Proof.
  induction es as [|y t IH]; intros Hk j x Hj; [discriminate|].
  cbn [nthN] in Hj. rewrite lenN_cons. destruct (j =? 0) eqn:Ej.
  - injection Hj as <-. destruct t as [|z t'].
    + apply entries_ok_last in Hk. rewrite lenN_nil. lia.
    + destruct (entries_ok_head _ _ _ _ Hk) as [_ [L _]].
      specialize (IH (entries_ok_tail _ _ _ Hk) 0 z eq_refl). lia.
  - specialize (IH (entries_ok_tail _ _ _ Hk) (j - 1) x Hj). lia.
Qed.

Lemma entries_fc_le es C : entries_ok es C = true -> forall j x, nthN es j = Some x -> first_chunk x <= C.
Proof.
  intros Hk j x Hj. pose proof (entries_room es C Hk j x Hj). pose proof (nthN_Some_lt _ _ _ Hj). lia.
Qed.

Lemma next_chunk_le es C i : entries_ok es C = true -> next_chunk es C i <= C + 1.
Proof.
  intros Hok. unfold next_chunk. destruct (nthN es (i + 1)) as [e'|] eqn:En; [|lia].
  pose proof (entries_fc_le _ _ Hok _ _ En). lia.
Qed.

Lemma chunk_counts_cons e rest C :
  chunk_counts (e :: rest) C =
  repeat (spc e) (N.to_nat (next_chunk (e :: rest) C 0 - first_chunk e)) ++ chunk_counts rest C.
Proof. rewrite next_chunk_0. destruct rest as [|e' r]; reflexivity. Qed.

Lemma chunk_counts_at es C : entries_ok es C = true -> forall e0, nthN es 0 = Some e0 ->
  forall i e c, nthN es i = Some e -> first_chunk e <= c < next_chunk es C i ->
  nthN (chunk_counts es C) (c - first_chunk e0) = Some (spc e) /\
  first_sample e0 + psum (chunk_counts es C) (c - first_chunk e0) = first_sample e + (c - first_chunk e) * spc e.
Proof.
  induction es as [|e1 rest IH]; intros Hok e0 H0 i e c Hi Hc; [discriminate|].
  cbn [nthN N.eqb] in H0. injection H0 as <-.
  rewrite chunk_counts_cons, nthN_app, psum_app, psum_repeat, lenN_repeat, N2Nat.id.
  destruct (entries_ok_at _ _ Hok 0 e1 eq_refl) as [_ [N1 F1]].
  set (nx := next_chunk (e1 :: rest) C 0) in *.
  cbn [nthN] in Hi. destruct (i =? 0) eqn:E.
  - (* c lies in the run of the head: no count of the rest is summed *)
    injection Hi as <-. replace i with 0 in * by lia. fold nx in Hc.
    destruct (c - first_chunk e1 <? nx - first_chunk e1) eqn:E1; [|lia].
    rewrite nthN_repeat, N2Nat.id, E1. split; [reflexivity|].
    replace (c - first_chunk e1 - (nx - first_chunk e1)) with 0 by lia. rewrite psum_0. lia.
  - (* c lies behind it: the whole run is summed, and the next entry starts where it ends *)
    rewrite next_chunk_tail in Hc by lia.
    destruct rest as [|e2 r]; [discriminate|].
    assert (Hnx : nx = first_chunk e2) by reflexivity. specialize (F1 e2 eq_refl).
    destruct (entries_sorted _ _ (entries_ok_tail _ _ _ Hok) 0 (i - 1) e2 e) as [_ Q]; [lia|reflexivity|exact Hi|].
    destruct (IH (entries_ok_tail _ _ _ Hok) e2 eq_refl (i - 1) e c Hi Hc) as [A B].
    destruct (c - first_chunk e1 <? nx - first_chunk e1) eqn:E1; [lia|].
    replace (c - first_chunk e1 - (nx - first_chunk e1)) with (c - first_chunk e2) by lia.
    split; [exact A|]. replace (N.min (c - first_chunk e1) (nx - first_chunk e1)) with (first_chunk e2 - first_chunk e1) by lia.
    lia.
Qed.

Lemma chunk_counts_len es C : entries_ok es C = true -> forall e0, nthN es 0 = Some e0 ->
  lenN (chunk_counts es C) = C + 1 - first_chunk e0.
Proof.
  induction es as [|e1 rest IH]; intros Hok e0 H0; [discriminate|].
  cbn [nthN N.eqb] in H0. injection H0 as <-.
  rewrite chunk_counts_cons, lenN_app, lenN_repeat, next_chunk_0, N2Nat.id.
  pose proof (entries_fc_le _ _ Hok 0 e1 eq_refl).
  destruct rest as [|e2 r]; [cbn [chunk_counts]; rewrite lenN_nil; lia|].
  rewrite (IH (entries_ok_tail _ _ _ Hok) e2 eq_refl).
  destruct (entries_ok_head _ _ _ _ Hok) as [_ [L _]].
  pose proof (entries_fc_le _ _ Hok 1 e2 eq_refl). lia.
Qed.

Lemma stsc_facts tb : consistent tb = true ->
  exists e0, nthN (sc_entries (t_stsc tb)) 0 = Some e0 /\ first_chunk e0 = 1 /\ first_sample e0 = 1 /\
             entries_ok (sc_entries (t_stsc tb)) (nchunks tb) = true /\
             sumN (counts_of tb) = nsamples tb /\ nsamples tb + 1 < 4294967296 /\ nchunks tb + 1 < 4294967296 /\
             lenN (counts_of tb) = nchunks tb /\ lenN (sc_entries (t_stsc tb)) < 4294967296.
Proof.
  intros H. destruct (consistent_parts tb H) as [Hn [_ [_ [Hs [_ [Ho _]]]]]].
  unfold stsc_ok in Hs.
  apply andb_prop in Hs. destruct Hs as [Hs _]. apply andb_prop in Hs. destruct Hs as [Hs _].
  apply andb_prop in Hs. destruct Hs as [Hs Hids].
  apply andb_prop in Hs. destruct Hs as [Hs Hsum].
  apply andb_prop in Hs. destruct Hs as [Hs Hok].
  unfold offsets_ok in Ho. apply andb_prop in Ho. destruct Ho as [_ Hc]. unfold is_u32 in *.
  destruct (sc_entries (t_stsc tb)) as [|e0 rest] eqn:Ees; [discriminate|].
  apply andb_prop in Hs. destruct Hs as [A B].
  exists e0. split; [reflexivity|].
  assert (L : lenN (counts_of tb) = nchunks tb).
  { unfold counts_of. rewrite Ees. rewrite (chunk_counts_len _ _ Hok e0 eq_refl). lia. }
  pose proof (entries_room _ _ Hok 0 e0 eq_refl).
  repeat split; try lia. exact Hok.
Qed.

Lemma find_entry_generic (key : stsc_entry -> N) es n low e_low :
  (forall i j ei ej, i <= j -> nthN es i = Some ei -> nthN es j = Some ej -> key ei <= key ej) ->
  nthN es low = Some e_low -> key e_low <= n ->
  exists i e, bsearch (fun v => negb (n <? v)) (map key es) (bsearch_fuel (map key es)) low (lenN es) = Ok (i + 1) /\
              low <= i /\ nthN es i = Some e /\ key e <= n /\
              (forall e', nthN es (i + 1) = Some e' -> n < key e').
Proof.
  intros Hs Hl Hk. pose proof (nthN_Some_lt _ _ _ Hl) as Hlt.
  destruct (bsearch_spec (fun v => negb (n <? v)) (map key es)) with
      (fuel := bsearch_fuel (map key es)) (lo := low) (hi := lenN es) as [r [Hr [Hb [H1 H2]]]].
  - intros i j vi vj Hij Hi Hj Hg. rewrite nthN_map in Hi, Hj.
    destruct (nthN es i) as [ei|] eqn:Ei; [|discriminate]. destruct (nthN es j) as [ej|] eqn:Ej; [|discriminate].
    cbn in Hi, Hj. injection Hi as <-. injection Hj as <-. specialize (Hs i j ei ej Hij Ei Ej). lia.
  - lia.
  - rewrite lenN_map. lia.
  - apply bsearch_fuel_ok. rewrite lenN_map. lia.
  - assert (low < r).
    { destruct (N.eq_dec r low) as [->|]; [|lia].
      specialize (H2 low (key e_low)). rewrite nthN_map, Hl in H2. specialize (H2 ltac:(lia) eq_refl). lia. }
    destruct (nthN_lt_Some es (r - 1)) as [e He]; [lia|].
    exists (r - 1), e. replace (r - 1 + 1) with r by lia. split; [exact Hr|]. split; [lia|]. split; [exact He|].
    split.
    + specialize (H1 (r - 1) (key e)). rewrite nthN_map, He in H1. specialize (H1 ltac:(lia) eq_refl). lia.
    + intros e' He'. pose proof (nthN_Some_lt _ _ _ He').
      specialize (H2 r (key e')). rewrite nthN_map, He' in H2. specialize (H2 ltac:(lia) eq_refl). lia.
Qed.

Lemma find_entry_for_sample_ok es C n low e_low : entries_ok es C = true -> lenN es < 4294967296 ->
  nthN es low = Some e_low -> first_sample e_low <= n ->
  exists i e, stsc_find_entry_for_sample es n low = Ok i /\ low <= i /\ nthN es i = Some e /\
              first_sample e <= n /\ (forall e', nthN es (i + 1) = Some e' -> n < first_sample e').
Proof.
  intros Hok Hlen Hl Hk.
  destruct (find_entry_generic first_sample es n low e_low) as [i [e [Hb [Hi [He [Hk' Hn]]]]]]; try assumption.
  - intros a b ea eb Hab Ha Hb. apply (entries_sorted _ _ Hok a b ea eb Hab Ha Hb).
  - exists i, e. unfold stsc_find_entry_for_sample. rewrite u32_small by lia. rewrite Hb. cbn [rbind].
    pose proof (nthN_Some_lt _ _ _ He). rewrite sub32_small by lia. replace (i + 1 - 1) with i by lia. auto.
Qed.

Lemma find_entry_for_chunk_ok es C c e0 : entries_ok es C = true -> lenN es < 4294967296 ->
  nthN es 0 = Some e0 -> first_chunk e0 <= c ->
  exists i e, stsc_find_entry_for_chunk es c = Ok i /\ nthN es i = Some e /\
              first_chunk e <= c /\ (forall e', nthN es (i + 1) = Some e' -> c < first_chunk e').
Proof.
  intros Hok Hlen Hl Hk.
  destruct (find_entry_generic first_chunk es c 0 e0) as [i [e [Hb [Hi [He [Hk' Hn]]]]]]; try assumption.
  - intros a b ea eb Hab Ha Hb. apply (entries_sorted _ _ Hok a b ea eb Hab Ha Hb).
  - exists i, e. unfold stsc_find_entry_for_chunk. rewrite Hb. cbn [rbind].
    pose proof (nthN_Some_lt _ _ _ He). rewrite sub32_small by lia. replace (i + 1 - 1) with i by lia. auto.
Qed.

Lemma entry_end tb : consistent tb = true -> forall i e n,
  nthN (sc_entries (t_stsc tb)) i = Some e -> n <= nsamples tb ->
  (forall e', nthN (sc_entries (t_stsc tb)) (i + 1) = Some e' -> n < first_sample e') ->
  n < first_sample e + (next_chunk (sc_entries (t_stsc tb)) (nchunks tb) i - first_chunk e) * spc e.
Proof.
  intros H i e n He Hn Hnext.
  destruct (stsc_facts tb H) as [e0 [H0 [Hc0 [Hs0 [Hok [Hsum [_ [_ [Hlen _]]]]]]]]].
  destruct (entries_ok_at _ _ Hok i e He) as [Sp [Nx F]].
  unfold next_chunk in *. destruct (nthN (sc_entries (t_stsc tb)) (i + 1)) as [e'|] eqn:En.
  - rewrite <- (F e' eq_refl). apply Hnext. reflexivity.
  - (* last entry: the last chunk C lies in it *)
    destruct (chunk_counts_at _ _ Hok e0 H0 i e (nchunks tb) He) as [A B].
    { unfold next_chunk. rewrite En. lia. }
    destruct (entries_sorted _ _ Hok 0 i e0 e ltac:(lia) H0 He) as [_ Hfc].
    rewrite Hc0, Hs0 in *. change (chunk_counts (sc_entries (t_stsc tb)) (nchunks tb)) with (counts_of tb) in A, B.
    pose proof (psum_succ _ _ _ A) as P. replace (nchunks tb - 1 + 1) with (nchunks tb) in P by lia.
    rewrite (psum_all (counts_of tb) (nchunks tb)) in P by lia. nia.
Qed.

Lemma div_bounds a b : 1 <= b -> b * (a / b) <= a /\ a < b * (a / b + 1).
Proof.
  intros H. split; [apply N.mul_div_le; lia|].
  pose proof (N.mul_succ_div_gt a b ltac:(lia)). lia.
Qed.

(* facts about a chunk c lying in entry i *)
Lemma chunk_in_entry tb : consistent tb = true -> forall i e c,
  nthN (sc_entries (t_stsc tb)) i = Some e ->
  first_chunk e <= c < next_chunk (sc_entries (t_stsc tb)) (nchunks tb) i ->
  1 <= c <= nchunks tb /\ 1 <= spc e /\
  nthN (counts_of tb) (c - 1) = Some (spc e) /\
  S_first_in_chunk tb c = first_sample e + (c - first_chunk e) * spc e /\
  S_first_in_chunk tb c + spc e <= nsamples tb + 1.
Proof.
  intros H i e c He Hc.
  destruct (stsc_facts tb H) as [e0 [H0 [Hc0 [Hs0 [Hok [Hsum [_ [_ [_ _]]]]]]]]].
  destruct (chunk_counts_at _ _ Hok e0 H0 i e c He Hc) as [A B].
  rewrite Hc0 in A, B. rewrite Hs0 in B.
  change (chunk_counts (sc_entries (t_stsc tb)) (nchunks tb)) with (counts_of tb) in A, B.
  destruct (entries_sorted _ _ Hok 0 i e0 e ltac:(lia) H0 He) as [_ Hfc].
  pose proof (next_chunk_le _ _ i Hok).
  destruct (entries_ok_at _ _ Hok i e He) as [Sp _].
  unfold S_first_in_chunk. fold (psum (counts_of tb) (c - 1)).
  pose proof (psum_succ _ _ _ A) as P. pose proof (psum_le (counts_of tb) (c - 1 + 1)).
  repeat split; try lia. exact A.
Qed.

(* facts about a sample n lying in entry i *)
Lemma sample_in_entry tb : consistent tb = true -> forall i e n,
  nthN (sc_entries (t_stsc tb)) i = Some e -> first_sample e <= n <= nsamples tb ->
  (forall e', nthN (sc_entries (t_stsc tb)) (i + 1) = Some e' -> n < first_sample e') ->
  forall q, q = (n - first_sample e) / spc e ->
  first_chunk e + q < next_chunk (sc_entries (t_stsc tb)) (nchunks tb) i /\
  S_chunk_of tb n = Some (first_chunk e + q) /\
  S_first_in_chunk tb (first_chunk e + q) = first_sample e + q * spc e /\
  first_sample e + q * spc e <= n < first_sample e + q * spc e + spc e.
Proof.
  intros H i e n He Hn Hnx q Eq.
  destruct (stsc_facts tb H) as [e0 [H0 [_ [Hs0 [Hok [_ [_ [_ [_ _]]]]]]]]].
  pose proof (entry_end tb H i e n He ltac:(lia) Hnx) as Hend.
  destruct (entries_ok_at _ _ Hok i e He) as [Sp [Nx _]].
  destruct (div_bounds (n - first_sample e) (spc e) Sp) as [D1 D2]. rewrite <- Eq in D1, D2. clear Eq.
  assert (Hq : first_chunk e + q < next_chunk (sc_entries (t_stsc tb)) (nchunks tb) i).
  { assert (Hm : spc e * q < spc e * (next_chunk (sc_entries (t_stsc tb)) (nchunks tb) i - first_chunk e)) by lia.
    apply N.mul_lt_mono_pos_l in Hm; lia. }
  destruct (chunk_in_entry tb H i e (first_chunk e + q) He ltac:(lia)) as [Hc [_ [A [B Bd]]]].
  replace (first_chunk e + q - first_chunk e) with q in B by lia.
  split; [exact Hq|]. split; [|split; [exact B|lia]].
  destruct (entries_sorted _ _ Hok 0 i e0 e ltac:(lia) H0 He) as [Hfs _]. rewrite Hs0 in Hfs.
  unfold S_chunk_of. destruct (n =? 0) eqn:En0; [lia|].
  unfold S_first_in_chunk in B. fold (psum (counts_of tb) (first_chunk e + q - 1)) in B.
  rewrite (sample_chunks_nth (counts_of tb) 1 (first_chunk e + q - 1) (spc e) (n - 1) A); [f_equal; lia|]. lia.
Qed.

(* the whole lookup of a sample: the search from any entry at or before it, the division, and what the chunk
   c it finds is in the expansion *)
Lemma sample_lookup tb : consistent tb = true -> forall n low e_low,
  nthN (sc_entries (t_stsc tb)) low = Some e_low -> first_sample e_low <= n <= nsamples tb ->
  exists i e c, stsc_find_entry_for_sample (sc_entries (t_stsc tb)) n low = Ok i /\ low <= i /\
    nthN (sc_entries (t_stsc tb)) i = Some e /\ first_sample e <= n /\
    div_go (sub32 n (first_sample e)) (spc e) = Ok (c - first_chunk e) /\
    first_chunk e <= c < next_chunk (sc_entries (t_stsc tb)) (nchunks tb) i /\
    S_chunk_of tb n = Some c /\ 1 <= c <= nchunks tb /\ S_chunk_count tb c = Some (spc e) /\
    S_first_in_chunk tb c = first_sample e + (c - first_chunk e) * spc e /\
    S_first_in_chunk tb c <= n < S_first_in_chunk tb c + spc e.
Proof.
  intros H n low e_low Hl Hn.
  destruct (stsc_facts tb H) as [_ [_ [_ [_ [Hok [_ [HN [_ [_ Hel]]]]]]]]].
  destruct (find_entry_for_sample_ok _ (nchunks tb) n low e_low Hok Hel Hl ltac:(lia))
    as [i [e [Hf [Hi [He [Hk Hnx]]]]]].
  destruct (sample_in_entry tb H i e n He ltac:(lia) Hnx _ eq_refl) as [Hq [Hch [Hfic Hb]]].
  assert (Hdiv : div_go (sub32 n (first_sample e)) (spc e) = Ok ((n - first_sample e) / spc e)).
  { destruct (entries_ok_at _ _ Hok i e He) as [Sp _]. unfold div_go. rewrite sub32_small by lia.
    destruct (spc e =? 0) eqn:Es; [lia|reflexivity]. }
  set (q := (n - first_sample e) / spc e) in *.
  destruct (chunk_in_entry tb H i e (first_chunk e + q) He ltac:(lia)) as [Hc [_ [A _]]].
  exists i, e, (first_chunk e + q). replace (first_chunk e + q - first_chunk e) with q by lia.
  unfold S_chunk_count. destruct (first_chunk e + q =? 0) eqn:E0; [lia|].
  rewrite Hfic. repeat split; try assumption; lia.
Qed.

Lemma chunk_of_sample_correct tb : consistent tb = true -> forall n, 1 <= n <= nsamples tb ->
  exists c, S_chunk_of tb n = Some c /\ 1 <= c <= nchunks tb /\
            S_first_in_chunk tb c <= n /\
            (exists cnt, S_chunk_count tb c = Some cnt /\ n < S_first_in_chunk tb c + cnt) /\
            stsc_chunk_nr_from_sample_nr (sc_entries (t_stsc tb)) n = Ok (c, S_first_in_chunk tb c).
Proof.
  intros H n Hn.
  destruct (stsc_facts tb H) as [e0 [H0 [_ [Hs0 [_ [_ [HN [HC _]]]]]]]].
  destruct (sample_lookup tb H n 0 e0 H0 ltac:(lia)) as [i [e [c [Hf [_ [He [_ [Hd [Hin [Hch [Hc [Hcnt [Hfic Hb]]]]]]]]]]]]].
  exists c. split; [exact Hch|]. split; [exact Hc|]. split; [lia|].
  split; [exists (spc e); split; [exact Hcnt|lia]|].
  unfold stsc_chunk_nr_from_sample_nr. rewrite (u32_small n) by lia. rewrite Hf. cbn [rbind].
  rewrite (idx_Some _ _ _ He). cbn [rbind]. rewrite Hd. cbn [rbind].
  rewrite (u32_small ((c - first_chunk e) * spc e)), !u32_small by lia. rewrite Hfic. do 2 f_equal. lia.
Qed.

Lemma chunk_lookup tb : consistent tb = true -> forall c, 1 <= c <= nchunks tb ->
  exists i e, stsc_find_entry_for_chunk (sc_entries (t_stsc tb)) c = Ok i /\
              nthN (sc_entries (t_stsc tb)) i = Some e /\
              first_chunk e <= c < next_chunk (sc_entries (t_stsc tb)) (nchunks tb) i.
Proof.
  intros H c Hc.
  destruct (stsc_facts tb H) as [e0 [H0 [Hc0 [_ [Hok [_ [_ [_ [_ Hel]]]]]]]]].
  destruct (find_entry_for_chunk_ok (sc_entries (t_stsc tb)) (nchunks tb) c e0 Hok Hel H0 ltac:(lia))
    as [i [e [Hf [He [Hk Hnx]]]]].
  exists i, e. split; [exact Hf|]. split; [exact He|]. split; [exact Hk|]. unfold next_chunk.
  destruct (nthN (sc_entries (t_stsc tb)) (i + 1)) as [e'|] eqn:En; [apply Hnx; reflexivity|lia].
Qed.

Lemma get_chunk_correct tb : consistent tb = true -> forall c, 1 <= c <= nchunks tb ->
  exists cnt, S_chunk_count tb c = Some cnt /\ 1 <= cnt /\ S_first_in_chunk tb c + cnt <= nsamples tb + 1 /\
              stsc_get_chunk (sc_entries (t_stsc tb)) c = Ok (mkChunk c (S_first_in_chunk tb c) cnt).
Proof.
  intros H c Hc.
  destruct (stsc_facts tb H) as [_ [_ [_ [_ [_ [_ [HN [HC _]]]]]]]].
  destruct (chunk_lookup tb H c Hc) as [i [e [Hf [He Hin]]]].
  destruct (chunk_in_entry tb H i e c He Hin) as [_ [Sp [A [B Bd]]]].
  exists (spc e). unfold S_chunk_count. destruct (c =? 0) eqn:E0; [lia|].
  split; [exact A|]. split; [exact Sp|]. split; [exact Bd|].
  unfold stsc_get_chunk. rewrite E0, Hf. cbn [rbind]. rewrite (idx_Some _ _ _ He). cbn [rbind].
  rewrite sub32_small by lia. rewrite (u32_small ((c - first_chunk e) * spc e)) by lia.
  rewrite u32_small by lia. rewrite B. do 2 f_equal. lia.
Qed.

Lemma get_offset_correct tb : consistent tb = true -> forall c, 1 <= c <= nchunks tb ->
  exists o, S_chunk_offset tb c = Some o /\ trak_chunk_offset tb c = Ok o.
Proof.
  intros H c Hc. destruct (consistent_parts tb H) as [_ [_ [_ [_ [_ [Ho _]]]]]].
  unfold S_chunk_offset, trak_chunk_offset, nchunks, offsets, offsets_ok in *.
  destruct (c =? 0) eqn:E0; [lia|].
  destruct (t_stco tb) as [l|]; [|destruct (t_co64 tb) as [l|]; [|discriminate]];
    (destruct (nthN_lt_Some l (c - 1)) as [o Ho']; [lia|]; exists o; split; [exact Ho'|];
     unfold get_offset; rewrite E0; destruct (lenN l <? c) eqn:E1; [lia|]; cbn [orb];
     apply idx_m1_Some; [lia|exact Ho']).
Qed.

Lemma fic_mono tb c c' : c <= c' -> S_first_in_chunk tb c <= S_first_in_chunk tb c'.
Proof.
  intros. unfold S_first_in_chunk. fold (psum (counts_of tb) (c - 1)). fold (psum (counts_of tb) (c' - 1)).
  pose proof (psum_mono (counts_of tb) (c - 1) (c' - 1) ltac:(lia)). lia.
Qed.

Lemma fic_succ tb c cnt : 1 <= c -> S_chunk_count tb c = Some cnt ->
  S_first_in_chunk tb (c + 1) = S_first_in_chunk tb c + cnt.
Proof.
  intros Hc Hcnt. unfold S_chunk_count in Hcnt. destruct (c =? 0) eqn:E; [lia|].
  unfold S_first_in_chunk. fold (psum (counts_of tb) (c - 1)). fold (psum (counts_of tb) (c + 1 - 1)).
  replace (c + 1 - 1) with (c - 1 + 1) by lia. rewrite (psum_succ _ _ _ Hcnt). lia.
Qed.

(* one iteration of the loop of GetContainingChunks: the entry of the next chunk *)
Lemma next_entry_ok es C i e chunkNr : entries_ok es C = true -> lenN es < 4294967296 -> C + 1 < 4294967296 ->
  nthN es i = Some e -> first_chunk e <= chunkNr < next_chunk es C i ->
  exists i' e',
    (if i <? sub32 (u32 (lenN es)) 1
     then do e1 <- idx es (i + 1); if u32 (chunkNr + 1) =? first_chunk e1 then Ok (i + 1, e1) else Ok (i, e)
     else Ok (i, e)) = Ok (i', e') /\
    nthN es i' = Some e' /\ first_chunk e' <= chunkNr + 1 /\ (chunkNr + 1 <= C -> chunkNr + 1 < next_chunk es C i').
Proof.
  intros Hok Hel HC He Hc. pose proof (nthN_Some_lt _ _ _ He) as Hi. pose proof (next_chunk_le es C i Hok) as Hle.
  rewrite (u32_small (lenN es)), sub32_small, (u32_small (chunkNr + 1)) by lia.
  destruct (i <? lenN es - 1) eqn:E.
  - destruct (nthN_lt_Some es (i + 1)) as [e1 He1]; [lia|].
    rewrite (idx_Some _ _ _ He1). cbn [rbind].
    assert (Hn1 : next_chunk es C i = first_chunk e1) by (unfold next_chunk; rewrite He1; reflexivity).
    destruct (chunkNr + 1 =? first_chunk e1) eqn:E1.
    + exists (i + 1), e1. split; [reflexivity|]. split; [exact He1|]. split; [lia|].
      intros _. destruct (entries_ok_at _ _ Hok (i + 1) e1 He1) as [_ [Nx _]]. lia.
    + exists i, e. split; [reflexivity|]. split; [exact He|]. split; lia.
  - exists i, e. split; [reflexivity|]. split; [exact He|]. split; [lia|].
    unfold next_chunk. rewrite (nthN_ge_None _ (i + 1)) by lia. lia.
Qed.

Lemma S_chunk_in_entry tb : consistent tb = true -> forall i e c,
  nthN (sc_entries (t_stsc tb)) i = Some e ->
  first_chunk e <= c < next_chunk (sc_entries (t_stsc tb)) (nchunks tb) i ->
  S_chunk tb c = Some (mkChunk c (first_sample e + (c - first_chunk e) * spc e) (spc e)).
Proof.
  intros H i e c He Hc. destruct (chunk_in_entry tb H i e c He Hc) as [Hr [_ [A [B _]]]].
  unfold S_chunk, S_chunk_count. destruct (c =? 0) eqn:E0; [lia|]. rewrite A, B. reflexivity.
Qed.

Lemma containing_loop_ok tb : consistent tb = true -> forall k chunkNr i e,
  nthN (sc_entries (t_stsc tb)) i = Some e -> first_chunk e <= chunkNr ->
  ((1 <= k)%nat -> chunkNr < next_chunk (sc_entries (t_stsc tb)) (nchunks tb) i) ->
  chunkNr + N.of_nat k <= nchunks tb + 1 ->
  exists l, containing_loop (sc_entries (t_stsc tb)) (u32 (lenN (sc_entries (t_stsc tb)))) k chunkNr i e = Ok l /\
            map Some l = map (S_chunk tb) (seqN chunkNr k).
Proof.
  intros H. destruct (stsc_facts tb H) as [_ [_ [_ [_ [Hok [_ [HN [HC [_ Hel]]]]]]]]].
  induction k as [|k IH]; intros chunkNr i e He Hfc Hnx Hb; [exists []; split; reflexivity|].
  specialize (Hnx ltac:(lia)).
  destruct (chunk_in_entry tb H i e chunkNr He ltac:(lia)) as [Hr [_ [_ [B Bd]]]].
  destruct (next_entry_ok _ _ i e chunkNr Hok Hel HC He ltac:(lia)) as [i' [e' [Hstep [He' [Hfc' Hnx']]]]].
  cbn [containing_loop seqN map]. rewrite (S_chunk_in_entry tb H i e chunkNr He ltac:(lia)), Hstep. cbn [rbind fst snd].
  destruct (IH (chunkNr + 1) i' e' He' Hfc' ltac:(lia) ltac:(lia)) as [l [Hl Hm]].
  rewrite (u32_small (chunkNr + 1)), Hl by lia. cbn [rbind]. eexists. split; [reflexivity|]. cbn [map]. rewrite Hm.
  rewrite sub32_small, (u32_small ((chunkNr - first_chunk e) * spc e)), u32_small by lia. reflexivity.
Qed.

Lemma containing_chunks_correct tb : consistent tb = true -> forall a b, 1 <= a -> a <= b -> b <= nsamples tb ->
  exists ca cb l, S_chunk_of tb a = Some ca /\ S_chunk_of tb b = Some cb /\ 1 <= ca /\ ca <= cb /\ cb <= nchunks tb /\
    stsc_get_containing_chunks (sc_entries (t_stsc tb)) a b = Ok l /\
    map Some l = map (S_chunk tb) (seqN ca (N.to_nat (cb + 1 - ca))).
Proof.
  intros H a b Ha Hab Hb.
  destruct (stsc_facts tb H) as [e0 [H0 [_ [Hs0 [_ [_ [_ [HC [_ _]]]]]]]]].
  destruct (sample_lookup tb H a 0 e0 H0 ltac:(lia))
    as [i [e [ca [Hf [_ [He [Hk [Hd [Hin [Hch [Hc [Hcnt [Hfic Hbd]]]]]]]]]]]]].
  destruct (sample_lookup tb H b i e He ltac:(lia))
    as [i2 [e2 [cb [Hf2 [_ [He2 [_ [Hd2 [Hin2 [Hch2 [Hc2 [Hcnt2 [Hfic2 Hbd2]]]]]]]]]]]]].
  (* were cb < ca, sample b would lie before the first sample of chunk ca, which is at most a *)
  assert (Hcc : ca <= cb).
  { destruct (N.le_gt_cases ca cb) as [L|L]; [exact L|].
    pose proof (fic_succ tb cb _ ltac:(lia) Hcnt2). pose proof (fic_mono tb (cb + 1) ca ltac:(lia)). lia. }
  exists ca, cb. unfold stsc_get_containing_chunks.
  destruct (a =? 0) eqn:Ea; [lia|]. destruct (b <? a) eqn:Eb; [lia|]. cbn [orb].
  rewrite Hf. cbn [rbind]. rewrite Hf2. cbn [rbind].
  rewrite (idx_Some _ _ _ He), (idx_Some _ _ _ He2). cbn [rbind]. rewrite Hd, Hd2. cbn [rbind].
  replace (u32 (ca - first_chunk e + first_chunk e)) with ca by (rewrite u32_small; lia).
  replace (u32 (cb - first_chunk e2 + first_chunk e2)) with cb by (rewrite u32_small; lia).
  destruct (cb <? ca) eqn:Ec; [lia|].
  destruct (containing_loop_ok tb H (N.to_nat (cb + 1 - ca)) ca i e He) as [l [Hl Hm]]; try lia.
  exists l. repeat split; try assumption; lia.
Qed.
