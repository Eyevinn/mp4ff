(* C09TimeCodePastProofs.v — SttsBox.GetTimeCode outside 1..N: the time code of the END of the track, for every
   table (no panic, no error result: sample number 0 and every number past the last sample are answered silently). *)
From V.lib Require Import Base.
From V.c09 Require Import C09Model C09Spec C09BaseProofs C09SttsProofs C09TimeCodeModel C09TimeCodeProofs.
Open Scope N_scope.

Lemma total_zero cs : forall ds, sumN cs = 0 -> sumN (expand_rl cs ds) = 0.
Proof.
  induction cs as [|c cs IH]; intros ds H; [reflexivity|]. destruct ds as [|d ds]; [reflexivity|].
  cbn [sumN] in H. rewrite sumN_expand_cons, IH by lia. nia.
Qed.

Lemma tc_loop_past cs : forall ds rem acc, lenN cs = lenN ds -> sumN cs <= rem ->
  acc + sumN (expand_rl cs ds) < 18446744073709551616 ->
  time_code_loop cs ds rem acc = Ok (acc + sumN (expand_rl cs ds)).
Proof.
  induction cs as [|c cs IH]; intros ds rem acc Hl Hr Hb; [cbn; f_equal; lia|].
  destruct ds as [|d ds]; [rewrite lenN_cons, lenN_nil in Hl; lia|].
  rewrite !lenN_cons in Hl. cbn [sumN] in Hr. cbn [time_code_loop].
  destruct (rem =? 0) eqn:E0.
  - rewrite total_zero by (cbn [sumN]; lia). f_equal. lia.
  - rewrite sumN_expand_cons in *. destruct (c <=? rem) eqn:E; [|lia].
    rewrite u64_small by lia. rewrite IH; try lia. f_equal. lia.
Qed.

Lemma time_code_past_end : forall cs ds n ts, lenN cs = lenN ds -> forallb is_u32 ds = true ->
  sumN cs < 4294967296 -> n = 0 \/ sumN cs < n -> n < 4294967296 -> 0 < ts -> ts < 4294967296 ->
  1000000000 * sumN (expand_rl cs ds) / ts < 9223372036854775808 ->
  stts_get_time_code cs ds n ts = Ok (S_time_code (sumN (expand_rl cs ds)) ts).
Proof.
  intros cs ds n ts Hl Hd Hs Hn Hn32 H4 H5 Hfit.
  pose proof (sumN_expand_bound cs ds Hd) as Hb.
  unfold stts_get_time_code.
  assert (Hrem : sumN cs <= sub32 n 1).
  { unfold sub32. destruct Hn as [-> | Hn]; [cbn; lia|]. lia. }
  rewrite (tc_loop_past cs ds (sub32 n 1) 0 Hl Hrem) by nia.
  rewrite N.add_0_l. destruct (ts =? 0) eqn:E1; [lia|].
  f_equal. apply time_code_value; assumption.
Qed.
