(* C09TimeProofs.v — SttsBox.GetSampleNrAtTime: first sample starting at or after a time. *)
From V.lib Require Import Base.
From V.c09 Require Import C09Model C09Spec C09BaseProofs C09SttsProofs C09CttsProofs.

Definition cnt_lt (t : N) (l : list N) : N := lenN (filter (fun s => s <? t) l).

Lemma cnt_lt_app t l1 l2 : cnt_lt t (l1 ++ l2) = cnt_lt t l1 + cnt_lt t l2.
Proof. unfold cnt_lt. rewrite filter_app, lenN_app. reflexivity. Qed.

(* all start times are >= the initial accumulator *)
Lemma cnt_lt_starts_ge t l acc : t <= acc -> cnt_lt t (starts l acc) = 0.
Proof.
  revert acc; induction l as [|d r IH]; intros acc H; [reflexivity|].
  unfold cnt_lt in *. cbn [starts filter]. destruct (acc <? t) eqn:E; [lia|]. apply IH. lia.
Qed.

(* arithmetic progression: k' characterised by x <= k'*d and (k'-1)*d < x *)
Lemma cnt_lt_repeat d : 0 < d -> forall c acc t k',
  t - acc <= k' * d -> (1 <= k' -> (k' - 1) * d < t - acc) ->
  cnt_lt t (starts (repeat d c) acc) = N.min (N.of_nat c) k'.
Proof.
  intros Hd. induction c as [|c IH]; intros acc t k' H1 H2; [cbn; lia|].
  unfold cnt_lt in *. cbn [repeat starts filter]. destruct (acc <? t) eqn:E.
  - rewrite lenN_cons. assert (1 <= k') by nia.
    rewrite (IH (acc + d) t (k' - 1)); [lia| |].
    + nia.
    + intros Hk. specialize (H2 ltac:(lia)). nia.
  - assert (k' = 0) by (destruct (N.eq_dec k' 0); [assumption|specialize (H2 ltac:(lia)); lia]).
    subst k'. rewrite (IH (acc + d) t 0); [lia|lia|lia].
Qed.

Lemma ceil_char rel d : 0 < d ->
  let k' := if rel mod d =? 0 then rel / d else rel / d + 1 in
  rel <= k' * d /\ (1 <= k' -> (k' - 1) * d < rel).
Proof.
  intros Hd. pose proof (N.div_mod rel d ltac:(lia)) as E. pose proof (N.mod_lt rel d ltac:(lia)) as L.
  remember (rel / d) as k. remember (rel mod d) as r. cbn zeta.
  destruct (r =? 0) eqn:Er.
  - split; [nia|]. intros. nia.
  - split; [nia|]. intros. replace (k + 1 - 1) with k by lia. nia.
Qed.

Lemma sumN_repeat_pos d c : 0 < d -> sumN (repeat d c) = N.of_nat c * d.
Proof. intros. apply sumN_repeat. Qed.

Lemma cnt_lt_run_passed d c acc t : 0 < d -> acc + N.of_nat c * d <= t ->
  cnt_lt t (starts (repeat d c) acc) = N.of_nat c.
Proof.
  intros Hd. revert acc; induction c as [|c IH]; intros acc H; [reflexivity|].
  unfold cnt_lt in *. cbn [repeat starts filter]. destruct (acc <? t) eqn:E; [|nia].
  rewrite lenN_cons, IH by nia. lia.
Qed.

(* t falls into a run of c samples of duration d that starts at time accT with sample accN + 1: the Go arithmetic
   (ceiling division in uint64, sample number in uint32) does not wrap, because the quotient is at most c *)
Lemma sat_found d c accT accN t :
  0 < d -> accT <= t -> t < accT + c * d -> accT + c * d < 18446744073709551616 -> accN + c + 1 < 4294967296 ->
  u32 (accN + u32 (if sub64 t accT mod d =? 0 then sub64 t accT / d else u64 (sub64 t accT / d + 1)) + 1) =
  accN + 1 + cnt_lt t (starts (repeat d (N.to_nat c)) accT).
Proof.
  intros Hd Ht Hlt H64 H32. rewrite sub64_small by lia.
  destruct (ceil_char (t - accT) d Hd) as [K1 K2].
  rewrite (cnt_lt_repeat d Hd (N.to_nat c) accT t _ K1 K2).
  assert (Hrel : t - accT < c * d) by lia. clear Ht Hlt H64.
  set (rel := t - accT) in *. set (k' := if rel mod d =? 0 then rel / d else rel / d + 1) in *.
  assert (Hk : k' <= c) by (destruct (N.le_gt_cases k' c); [assumption|specialize (K2 ltac:(lia)); nia]).
  replace (if rel mod d =? 0 then rel / d else u64 (rel / d + 1)) with k'
    by (unfold k' in *; destruct (rel mod d =? 0); [reflexivity|symmetry; apply u64_small; lia]).
  clearbody k' rel. rewrite (u32_small k'), u32_small by lia. lia.
Qed.

(* the loop, entered at a run that starts at time accT <= t with sample accN + 1 *)
Lemma sat_loop_ok cs : forall ds t accT accN,
  lenN cs = lenN ds -> deltas_positive cs ds = true -> forallb is_u32 cs = true -> forallb is_u32 ds = true ->
  accT <= t -> accT + sumN (expand_rl cs ds) < 18446744073709551616 -> accN + sumN cs + 1 < 4294967296 ->
  if t <? accT + sumN (expand_rl cs ds) then
    exists x y, sample_at_time_loop cs ds t accT accN =
                Ok (Some (accN + 1 + cnt_lt t (starts (expand_rl cs ds) accT)), x, y)
  else sample_at_time_loop cs ds t accT accN = Ok (None, accT + sumN (expand_rl cs ds), accN + sumN cs).
Proof.
  induction cs as [|c cs IH]; intros ds t accT accN Hl Hp Hc32 Hd32 Ht Hb64 Hb32.
  - cbn [expand_rl sumN sample_at_time_loop]. rewrite !N.add_0_r. destruct (t <? accT) eqn:E; [lia|reflexivity].
  - destruct ds as [|d ds]; [rewrite lenN_cons, lenN_nil in Hl; lia|].
    rewrite !lenN_cons in Hl. cbn [forallb] in Hc32, Hd32.
    apply andb_prop in Hc32. destruct Hc32 as [_ Hc32]. apply andb_prop in Hd32. destruct Hd32 as [_ Hd32].
    cbn [expand_rl sumN sample_at_time_loop] in *. rewrite sumN_app, sumN_repeat, N2Nat.id in *.
    rewrite (u64_small (accT + c * d)) by lia.
    destruct (t <? accT + c * d) eqn:E.
    + (* t lies in this run *)
      assert (Hdpos : 0 < d) by (destruct d; [rewrite N.mul_0_r in E|]; lia).
      destruct (t <? accT + (c * d + sumN (expand_rl cs ds))) eqn:E2; [|lia].
      destruct (d =? 0) eqn:Ed; [lia|].
      rewrite starts_app, cnt_lt_app, (cnt_lt_starts_ge t (expand_rl cs ds)) by (rewrite sumN_repeat, N2Nat.id; lia).
      rewrite (sat_found d c), N.add_0_r by lia. eauto.
    + (* t lies behind it *)
      rewrite (u32_small (accN + c)), (N.mul_comm d c), (u64_small (accT + c * d)) by lia.
      assert (Hp' : deltas_positive cs ds = true)
        by (cbn [deltas_positive] in Hp; destruct cs; [reflexivity|apply andb_prop in Hp; tauto]).
      specialize (IH ds t (accT + c * d) (accN + c) ltac:(lia) Hp' Hc32 Hd32 ltac:(lia) ltac:(lia) ltac:(lia)).
      rewrite <- !N.add_assoc in IH.
      destruct (t <? accT + (c * d + sumN (expand_rl cs ds))) eqn:E2; [|exact IH].
      destruct IH as [x [y ->]]. exists x, y. do 4 f_equal.
      (* a later run holds t: this one is not the last, so d is positive and all its samples start before t *)
      assert (Hdpos : 0 < d)
        by (cbn [deltas_positive] in Hp; destruct cs; [cbn [expand_rl sumN] in E2|apply andb_prop in Hp]; lia).
      rewrite starts_app, cnt_lt_app, sumN_repeat, N2Nat.id, cnt_lt_run_passed by (rewrite ?N2Nat.id; lia). lia.
Qed.

Lemma last_repeat {A} (d x : A) c : last (repeat d c) x = match c with O => x | S _ => d end.
Proof. induction c as [|[|c] IH]; [reflexivity..|exact IH]. Qed.

(* the last duration of the expansion, with any default x: not 0 when the last delta is not 0 (then every delta
   is positive); 0 when it is, and then the last run is a single sample *)
Lemma last_run cs : forall ds x, lenN cs = lenN ds -> deltas_positive cs ds = true ->
  (last ds 0 <> 0 -> x <> 0 -> last (expand_rl cs ds) x <> 0) /\
  (cs <> [] -> last ds 0 = 0 -> last cs 0 = 1 /\ last (expand_rl cs ds) x = 0).
Proof.
  induction cs as [|c cs IH]; intros [|d ds] x Hl Hp; try (rewrite lenN_cons, lenN_nil in Hl; lia);
    [split; [auto|congruence]|].
  rewrite !lenN_cons in Hl. cbn [expand_rl]. rewrite last_app, last_repeat.
  destruct cs as [|c2 cs'].
  - destruct ds; [|rewrite lenN_cons, lenN_nil in Hl; lia].
    cbn [expand_rl last deltas_positive] in *. split.
    + intros Hd Hx. destruct (N.to_nat c); assumption.
    + intros _ ->. replace c with 1 by lia. split; reflexivity.
  - destruct ds as [|d2 ds']; [rewrite !lenN_cons, lenN_nil in Hl; lia|].
    cbn [deltas_positive] in Hp. apply andb_prop in Hp. destruct Hp as [Hd Hp].
    change (last (d :: d2 :: ds') 0) with (last (d2 :: ds') 0).
    change (last (c :: c2 :: cs') 0) with (last (c2 :: cs') 0).
    destruct (IH (d2 :: ds') (match N.to_nat c with O => x | S _ => d end) ltac:(lia) Hp) as [A B]. split.
    + intros Hl0 Hx. apply A; [exact Hl0|]. destruct (N.to_nat c); lia.
    + intros _ Hl0. apply B; [discriminate|exact Hl0].
Qed.

Lemma last_expand_nonzero cs : forall ds, lenN cs = lenN ds -> deltas_positive cs ds = true ->
  last ds 0 <> 0 -> last (expand_rl cs ds) 1 <> 0.
Proof. intros ds Hl Hp H. apply (last_run cs ds 1 Hl Hp); [exact H|discriminate]. Qed.

(* GetSampleNrAtTime on the bare columns: the sample number N + 1 must be a uint32; the total duration is then
   below 2^64 by itself *)
Lemma sample_at_time_cols cs ds : lenN cs = lenN ds ->
  forallb is_u32 cs = true -> forallb is_u32 ds = true -> deltas_positive cs ds = true ->
  1 <= sumN cs -> sumN cs + 1 < 4294967296 ->
  forall t, stts_get_sample_nr_at_time cs ds t =
            if t <? sumN (expand_rl cs ds) then Ok (1 + cnt_lt t (starts (expand_rl cs ds) 0))
            else if (last (expand_rl cs ds) 1 =? 0) && (t =? sumN (expand_rl cs ds)) then Ok (lenN (expand_rl cs ds))
            else Err.
Proof.
  intros L Hc32 Hd32 Hp HN1 HB t.
  pose proof (sumN_expand_bound cs ds Hd32) as HT.
  pose proof (sat_loop_ok cs ds t 0 0 L Hp Hc32 Hd32 ltac:(lia) ltac:(lia) ltac:(lia)) as Q.
  unfold stts_get_sample_nr_at_time. rewrite !N.add_0_l in Q.
  destruct (t <? sumN (expand_rl cs ds)) eqn:E.
  - destruct Q as [x [y ->]]. reflexivity.
  - rewrite Q, (lenN_expand cs ds L). cbn [rbind].
    assert (Hne : cs <> []) by (intros ->; cbn in HN1; lia).
    assert (Hned : ds <> []) by (intros ->; destruct cs; [congruence|rewrite lenN_cons, lenN_nil in L; lia]).
    assert (Hlc : 1 <= lenN cs) by (destruct cs; [congruence|rewrite lenN_cons; lia]).
    pose proof (nthN_last ds 0 Hned) as Hld. rewrite <- L in Hld.
    rewrite (idx_m1_Some ds (lenN cs) _ Hlc Hld). cbn [rbind].
    destruct (last_run cs ds 1 L Hp) as [Hnz Hz].
    destruct (last ds 0 =? 0) eqn:Ez; cbn [negb].
    + destruct (Hz Hne ltac:(lia)) as [A ->].
      rewrite (idx_m1_Some cs (lenN cs) _ Hlc (nthN_last cs 0 Hne)), A. reflexivity.
    + specialize (Hnz ltac:(lia) ltac:(discriminate)).
      destruct (last (expand_rl cs ds) 1 =? 0) eqn:E0; [lia|reflexivity].
Qed.

Lemma sample_at_time_correct tb : consistent tb = true ->
  deltas_positive (t_stts_count tb) (t_stts_delta tb) = true -> 1 <= nsamples tb ->
  forall t, stts_get_sample_nr_at_time (t_stts_count tb) (t_stts_delta tb) t =
            match S_sample_at_time tb t with Some nr => Ok nr | None => Err end.
Proof.
  intros H Hp HN1 t. destruct (stts_facts tb H) as [L [S [_ _]]]. destruct (stts_u32 tb H) as [Hc32 Hd32].
  destruct (consistent_parts tb H) as [Hn _]. unfold is_u32 in Hn.
  rewrite (sample_at_time_cols _ _ L Hc32 Hd32 Hp) by lia.
  unfold S_sample_at_time, durs, cnt_lt. cbn zeta.
  destruct (t <? _); [reflexivity|]. destruct (_ && _); reflexivity.
Qed.
