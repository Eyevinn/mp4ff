(* C09CttsProofs.v — ctts (composition offset through the cumulative EndSampleNr + binary search) and
   stss (sync lookup by binary search). *)
From V.lib Require Import Base.
From V.c09 Require Import C09Model C09Spec C09BaseProofs C09SttsProofs.

Lemma sorted_le_tail a t : sorted_le (a :: t) = true -> sorted_le t = true.
Proof. cbn [sorted_le]. destruct t as [|b t']; [reflexivity|]. intros H. apply andb_prop in H. tauto. Qed.

Lemma sorted_le_nth l : sorted_le l = true -> forall i j x y, i <= j ->
  nthN l i = Some x -> nthN l j = Some y -> x <= y.
Proof.
  induction l as [|a t IH]; intros Hs i j x y Hij Hi Hj; [discriminate|].
  cbn [nthN] in Hi, Hj. destruct (j =? 0) eqn:Ej.
  - destruct (i =? 0) eqn:Ei; [|lia]. injection Hi as <-. injection Hj as <-. lia.
  - destruct (i =? 0) eqn:Ei.
    + injection Hi as <-. destruct t as [|b t']; [discriminate|].
      assert (a <= b) by (cbn [sorted_le] in Hs; apply andb_prop in Hs; lia).
      specialize (IH (sorted_le_tail _ _ Hs) 0 (j - 1) b y ltac:(lia) eq_refl Hj). lia.
    + apply (IH (sorted_le_tail _ _ Hs) (i - 1) (j - 1)); [lia|exact Hi|exact Hj].
Qed.

Lemma sorted_lt_le l : sorted_lt l = true -> sorted_le l = true.
Proof.
  induction l as [|a t IH]; [reflexivity|]. cbn [sorted_lt sorted_le]. destruct t as [|b t']; [reflexivity|].
  intros H. apply andb_prop in H. destruct H as [H1 H2]. rewrite (IH H2). cbn [andb].
  destruct (a <=? b) eqn:E; [reflexivity|lia].
Qed.

(* position j of the expansion of the count differences belongs to entry k iff End[k] <= j + End[0] < End[k+1] *)
Lemma expand_diffs_nth {A} ends : sorted_le ends = true -> forall (offs : list A) e0 k lo hi x j,
  nthN ends 0 = Some e0 ->
  nthN ends k = Some lo -> nthN ends (k + 1) = Some hi -> nthN offs k = Some x ->
  lo <= j + e0 < hi -> nthN (expand_rl (diffs ends) offs) j = Some x.
Proof.
  induction ends as [|a t IH]; intros Hs offs e0 k lo hi x j H0 Hlo Hhi Hx Hj; [discriminate|].
  cbn [nthN N.eqb] in H0. injection H0 as <-.
  destruct t as [|b t']; [rewrite nthN_S in Hhi; discriminate|].
  destruct offs as [|o offs']; [discriminate|].
  cbn [diffs expand_rl]. rewrite nthN_app, lenN_repeat, N2Nat.id.
  assert (Hab : a <= b) by (cbn [sorted_le] in Hs; apply andb_prop in Hs; lia).
  cbn [nthN] in Hlo, Hx. rewrite nthN_S in Hhi.
  destruct (k =? 0) eqn:Ek.
  - injection Hlo as <-. injection Hx as <-. replace k with 0 in Hhi by lia. cbn [nthN N.eqb] in Hhi.
    injection Hhi as <-. destruct (j <? b - a) eqn:E; [|lia].
    rewrite nthN_repeat, N2Nat.id, E. reflexivity.
  - pose proof (sorted_le_nth _ (sorted_le_tail _ _ Hs) 0 (k - 1) b lo ltac:(lia) eq_refl Hlo).
    destruct (j <? b - a) eqn:E; [lia|].
    apply (IH (sorted_le_tail _ _ Hs) offs' b (k - 1) lo hi x); try assumption; [reflexivity| |lia].
    replace (k - 1 + 1) with k by lia. exact Hhi.
Qed.

Lemma nthN_last {A} (l : list A) d : l <> [] -> nthN l (lenN l - 1) = Some (last l d).
Proof.
  induction l as [|a t IH]; intros H; [congruence|].
  destruct t as [|b t'].
  - reflexivity.
  - rewrite lenN_cons. cbn [nthN]. destruct (1 + lenN (b :: t') - 1 =? 0) eqn:E; [rewrite lenN_cons in E; lia|].
    replace (1 + lenN (b :: t') - 1 - 1) with (lenN (b :: t') - 1) by lia.
    change (last (a :: b :: t') d) with (last (b :: t') d). apply IH. discriminate.
Qed.

Lemma existsb_nthN_true {A} (f : A -> bool) l k v : nthN l k = Some v -> f v = true -> existsb f l = true.
Proof.
  revert k; induction l as [|a t IH]; intros k H Hf; [discriminate|].
  cbn [nthN] in H. cbn [existsb]. destruct (k =? 0).
  - injection H as ->. rewrite Hf. reflexivity.
  - rewrite (IH _ H Hf). apply orb_true_r.
Qed.

Lemma existsb_nthN_false {A} (f : A -> bool) l :
  (forall k v, nthN l k = Some v -> f v = false) -> existsb f l = false.
Proof.
  induction l as [|a t IH]; intros H; [reflexivity|]. cbn [existsb].
  rewrite (H 0 a eq_refl). cbn [orb]. apply IH. intros k v Hk. apply (H (k + 1) v). rewrite nthN_S. exact Hk.
Qed.

Lemma lt_prefix_true l nr : sorted_le l = true -> prefix_true (fun v => v <? nr) l.
Proof.
  intros Hs i j vi vj Hij Hi Hj Hg. pose proof (sorted_le_nth l Hs i j vi vj Hij Hi Hj). lia.
Qed.

(* on any box whose EndSampleNr column starts at 0, is sorted and ends at Ns: the search finds the entry r with
   End[r-1] < n <= End[r], which is where position n - 1 of the expansion lies *)
Lemma cto_correct_box c Ns :
  lenN (ct_end c) = lenN (ct_off c) + 1 -> hd 1 (ct_end c) = 0 -> sorted_le (ct_end c) = true ->
  last (ct_end c) 0 = Ns -> forall n, 1 <= n <= Ns ->
  exists x, S_cto c n = Some x /\ ctts_get_cto c n = Ok x.
Proof.
  intros Hlen Hhd Hsort Hlast n Hn.
  assert (Hne : ct_end c <> []) by (destruct (ct_end c); [rewrite lenN_nil in Hlen; lia|discriminate]).
  assert (H0 : nthN (ct_end c) 0 = Some 0).
  { destruct (ct_end c) as [|a t]; [congruence|]. cbn [hd] in Hhd. cbn [nthN N.eqb]. f_equal. lia. }
  pose proof (nthN_last (ct_end c) 0 Hne) as HL. rewrite Hlast in HL.
  destruct (bsearch_spec (fun v => v <? n) (ct_end c) (lt_prefix_true _ n Hsort) (bsearch_fuel (ct_end c)) 0
                         (lenN (ct_end c))) as [r [Hr [Hb [H1 H2]]]]; [lia|lia|apply bsearch_fuel_ok; lia|].
  assert (R1 : 1 <= r).
  { destruct (N.eq_dec r 0) as [->|]; [|lia]. specialize (H2 0 0 ltac:(lia) H0). lia. }
  assert (R2 : r <= lenN (ct_end c) - 1).
  { destruct (N.eq_dec r (lenN (ct_end c))) as [->|]; [|lia].
    specialize (H1 (lenN (ct_end c) - 1) Ns ltac:(lia) HL). lia. }
  destruct (nthN_lt_Some (ct_end c) (r - 1)) as [lo Hlo]; [lia|].
  destruct (nthN_lt_Some (ct_end c) r) as [hi Hhi]; [lia|].
  destruct (nthN_lt_Some (ct_off c) (r - 1)) as [x Hx]; [lia|].
  specialize (H1 (r - 1) lo ltac:(lia) Hlo). specialize (H2 r hi ltac:(lia) Hhi).
  exists x. unfold S_cto, ctts_get_cto, ctos_of. destruct (n =? 0) eqn:E0; [lia|]. split.
  - apply (expand_diffs_nth (ct_end c) Hsort (ct_off c) 0 (r - 1) lo hi x (n - 1)); try assumption; [|lia].
    replace (r - 1 + 1) with r by lia. exact Hhi.
  - rewrite Hr. cbn [rbind]. apply idx_m1_Some; [lia|exact Hx].
Qed.

Lemma cto_correct tb c : consistent tb = true -> t_ctts tb = Some c -> forall n, 1 <= n <= nsamples tb ->
  exists x, S_cto c n = Some x /\ ctts_get_cto c n = Ok x.
Proof.
  intros H Hc. destruct (consistent_parts tb H) as [_ [_ [Hk _]]]. unfold ctts_ok in Hk. rewrite Hc in Hk.
  repeat (apply andb_prop in Hk; destruct Hk as [Hk ?]). apply (cto_correct_box c (nsamples tb)); try assumption; lia.
Qed.

Lemma is_sync_correct l n : sorted_le l = true -> stss_is_sync l n = Ok (S_is_sync l n).
Proof.
  intros Hsort. unfold stss_is_sync, S_is_sync.
  destruct (bsearch_spec (fun v => v <? n) l (lt_prefix_true _ n Hsort) (bsearch_fuel l) 0 (lenN l))
    as [r [Hr [Hb [H1 H2]]]]; [lia|lia|apply bsearch_fuel_ok; lia|].
  rewrite Hr. cbn [rbind]. destruct (r <? lenN l) eqn:E.
  - destruct (nthN_lt_Some l r) as [v Hv]; [lia|]. rewrite (idx_Some _ _ _ Hv). cbn [rbind]. f_equal.
    destruct (v =? n) eqn:Ev.
    + symmetry. apply (existsb_nthN_true _ l r v Hv). lia.
    + symmetry. apply existsb_nthN_false. intros k w Hk.
      specialize (H2 r v ltac:(lia) Hv).
      destruct (N.lt_ge_cases k r) as [L|L].
      * specialize (H1 k w ltac:(lia) Hk). lia.
      * pose proof (sorted_le_nth l Hsort r k v w L Hv Hk). lia.
  - f_equal. symmetry. apply existsb_nthN_false. intros k w Hk. pose proof (nthN_Some_lt _ _ _ Hk).
    specialize (H1 k w ltac:(lia) Hk). lia.
Qed.

Lemma is_sync_correct_tb : forall tb l, consistent tb = true -> t_stss tb = Some l -> forall n,
  stss_is_sync l n = Ok (S_is_sync l n).
Proof.
  intros tb l H Hl n. apply is_sync_correct. apply sorted_lt_le.
  destruct (consistent_parts tb H) as [_ [_ [_ [_ [_ [_ [Hs _]]]]]]]. unfold stss_ok in Hs. rewrite Hl in Hs.
  apply andb_prop in Hs. tauto.
Qed.
