(* C09ArithProofs.v — the arithmetic hypotheses of the stts queries, exactly.
   The Go code computes sample numbers in uint32 and times in uint64.  Which sums must stay below 2^32 / 2^64 for
   the query theorems to hold, stated on the bare stts columns (no `consistent`):
     GetDecodeTime      none: for ANY uint32 columns (counts may sum to 2^32 and more) and every uint32 sample
                        number 1..N the result is exact (the time of a uint32 sample number is < 2^32 * 2^32);
                        this is C09SttsProofs.decode_time_exact, of which the theorem on consistent tables is a case
     GetSampleNrAtTime  exactly one: (sum of the counts) + 1 < 2^32 (the answer N+1 "inside the last sample" must be
                        a uint32; with it the total duration is < 2^64 by itself)
   and past the end GetDecodeTime panics for EVERY table (known finding C09-F4). *)
From V.lib Require Import Base.
From V.c09 Require Import C09Model C09Spec C09TimeProofs.

Lemma decode_time_loop_past cs : forall ds rem acc, lenN cs = lenN ds -> sumN cs <= rem ->
  decode_time_loop cs ds rem acc = Panic.
Proof.
  induction cs as [|c cs IH]; intros ds rem acc Hl Hr.
  - destruct ds; [reflexivity|rewrite lenN_cons, lenN_nil in Hl; lia].
  - destruct ds as [|d ds]; [reflexivity|]. rewrite !lenN_cons in Hl. cbn [sumN] in Hr.
    cbn [decode_time_loop]. destruct (c <=? rem) eqn:E; [|lia]. apply IH; lia.
Qed.

Lemma decode_time_past_end : forall cs ds n, lenN cs = lenN ds -> sumN cs < n ->
  stts_get_decode_time cs ds n = Panic.
Proof.
  intros cs ds n Hl Hn. unfold stts_get_decode_time. destruct (n =? 0) eqn:E; [reflexivity|].
  apply decode_time_loop_past; [assumption|lia].
Qed.

(* S_sample_at_time on the bare columns *)
Definition sat_spec (cs ds : list N) (t : N) : option N :=
  let du := expand_rl cs ds in
  let total := sumN du in
  if t <? total then Some (1 + lenN (filter (fun s => s <? t) (starts du 0)))
  else if (last du 1 =? 0) && (t =? total) then Some (lenN du)
  else None.

Lemma sat_spec_tb tb t : sat_spec (t_stts_count tb) (t_stts_delta tb) t = S_sample_at_time tb t.
Proof. reflexivity. Qed.

Lemma sample_at_time_exact : forall cs ds, lenN cs = lenN ds ->
  forallb is_u32 cs = true -> forallb is_u32 ds = true -> deltas_positive cs ds = true ->
  1 <= sumN cs -> sumN cs + 1 < 4294967296 ->
  forall t, stts_get_sample_nr_at_time cs ds t = match sat_spec cs ds t with Some nr => Ok nr | None => Err end.
Proof.
  intros cs ds L Hc32 Hd32 Hp HN1 HB t. rewrite (sample_at_time_cols cs ds L Hc32 Hd32 Hp HN1 HB).
  unfold sat_spec, cnt_lt. cbn zeta. destruct (t <? _); [reflexivity|]. destruct (_ && _); reflexivity.
Qed.
