(* C08FragProofs.v — the bookkeeping of DecodeFile (C08FragModel) does not depend on the representation of the
   mdat boxes: it commutes with every change of representation that preserves Size()-HeaderSize() and
   commutes with "after a Size() call".  Hence decoding in memory and decoding lazily build the same File
   (isFragmented, Init, File.Mdat, Sidxs, Segments, Fragments with their Moof/Mdat pairing and Children). *)
From V.lib Require Import Base.
From V.c08 Require Import C08Model C08Spec C08TreeProofs C08SelModel C08SelProofs C08FragModel.

Ltac norm_st :=
  unfold map_fstate, map_seg;
  cbn [map fs_frag fs_ftyp fs_init fs_mdat fs_sidxs fs_segs fs_mfra fs_children fs_last
       sg_styp sg_start sg_sidxs sg_frags map_tbox tname option_map];
  fold (@map_seg).

Section Commute.
Variables (A B : Type) (h : A -> B).
Variables (pa : A -> N) (aa : A -> A) (pb : B -> N) (ab : B -> B).
Hypothesis Hp : forall m, pb (h m) = pa m.
Hypothesis Ha : forall m, h (aa m) = ab (h m).

Lemma tname_map b : tname (map_tbox h b) = tname b.
Proof. destruct b; reflexivity. Qed.

Lemma frag_add_map fr b : map_frag h (frag_add A fr b) = frag_add B (map_frag h fr) (map_tbox h b).
Proof.
  destruct b as [n sp sz|m sz]; cbn [frag_add map_tbox].
  - destruct (eqb_list n n_emsg); [reflexivity|]. destruct (eqb_list n n_moof); reflexivity.
  - reflexivity.
Qed.

Lemma lenN_map {X Y} (f : X -> Y) l : lenN (map f l) = lenN l.
Proof. unfold lenN. rewrite map_length. reflexivity. Qed.

Lemma ssin_map onmoof s pos :
  map_fstate h (start_segment_if_needed A onmoof s pos) = start_segment_if_needed B onmoof (map_fstate h s) pos.
Proof.
  unfold start_segment_if_needed. cbn [map_fstate fs_sidxs fs_segs]. rewrite lenN_map.
  match goal with |- map_fstate h (if ?c1 then _ else _) = (if ?c2 then _ else _) => assert (E : c1 = c2) end.
  { f_equal. destruct (fs_sidxs s); [|reflexivity]. destruct onmoof; [|reflexivity].
    destruct (fs_segs s) as [|sg t]; [reflexivity|]. cbn [map map_seg sg_styp sg_frags].
    destruct (sg_frags sg) as [|fr t']; [reflexivity|]. cbn [map map_frag fr_moof]. reflexivity. }
  rewrite <- E. destruct (_ || _); reflexivity.
Qed.

Lemma frag_step_map onmoof ax s b :
  map_res (map_fstate h) (frag_step A pa aa onmoof ax s b)
  = frag_step B pb ab onmoof ax (map_fstate h s) (map_tbox h b).
Proof.
  destruct b as [n pos sz|m sz].
  - cbn [map_tbox]. unfold frag_step.
    destruct (eqb_list n n_ftyp); [reflexivity|].
    destruct (eqb_list n n_moov).
    { destruct (ax pos) as [|[e|]|]; try reflexivity. destruct (e =? 0); reflexivity. }
    destruct (eqb_list n n_sidx).
    { cbn [map_fstate fs_segs]. destruct (fs_segs s) as [|sg segs]; reflexivity. }
    destruct (eqb_list n n_styp); [reflexivity|].
    destruct (eqb_list n n_emsg).
    { rewrite <- ssin_map. set (s1 := start_segment_if_needed A onmoof s pos).
      cbn [map_fstate fs_segs]. destruct (fs_segs s1) as [|sg segs]; [reflexivity|].
      cbn [map map_seg sg_frags]. destruct (sg_frags sg) as [|fr frs]; cbn [map map_res]; unfold set_segs;
        norm_st; repeat f_equal; rewrite frag_add_map; reflexivity. }
    destruct (eqb_list n n_moof).
    { replace (set_segs B (map_fstate h s) true (fs_segs (map_fstate h s)))
        with (map_fstate h (set_segs A s true (fs_segs s))) by reflexivity.
      rewrite <- ssin_map. set (s1 := start_segment_if_needed A onmoof _ pos).
      cbn [map_fstate fs_segs]. destruct (fs_segs s1) as [|sg segs]; [reflexivity|].
      cbn [map map_seg sg_frags]. destruct (sg_frags sg) as [|fr frs]; cbn [map map_res].
      - unfold set_segs;
        norm_st; repeat f_equal; rewrite frag_add_map; reflexivity.
      - cbn [map_frag fr_moof]. destruct (fr_moof fr); cbn [map_res]; unfold set_segs;
        norm_st; repeat f_equal; rewrite frag_add_map; reflexivity. }
    destruct (eqb_list n n_mfra); reflexivity.
  - cbn [map_tbox]. unfold frag_step. cbn [map_fstate fs_frag fs_last fs_segs fs_mdat].
    destruct (fs_frag s).
    + destruct (negb (eqb_list (fs_last s) n_moof)); [reflexivity|].
      destruct (fs_segs s) as [|sg segs]; [reflexivity|]. cbn [map map_seg sg_frags].
      destruct (sg_frags sg) as [|fr frs]; [reflexivity|]. cbn [map map_res]. unfold set_segs.
      norm_st. rewrite <- Ha. reflexivity.
    + destruct (fs_mdat s) as [old|]; cbn [option_map].
      * rewrite !Hp, <- !Ha, !Hp. destruct ((0 <? pa old) && (0 <? pa (aa m))); [reflexivity|].
        cbn [map_res map_fstate fs_frag fs_ftyp fs_init fs_mdat fs_sidxs fs_segs fs_mfra fs_children fs_last
             option_map map map_tbox tname].
        destruct (pa old =? 0); reflexivity.
      * cbn [map_res map_fstate fs_frag fs_ftyp fs_init fs_mdat fs_sidxs fs_segs fs_mfra fs_children fs_last
             option_map map map_tbox tname]. rewrite <- Ha. reflexivity.
Qed.

Lemma frag_run_map onmoof ax : forall bs s,
  map_res (map_fstate h) (frag_run A pa aa onmoof ax s bs)
  = frag_run B pb ab onmoof ax (map_fstate h s) (map (map_tbox h) bs).
Proof.
  induction bs as [|b t IH]; intros s; [reflexivity|].
  cbn [frag_run map]. rewrite <- frag_step_map.
  destruct (frag_step A pa aa onmoof ax s b); cbn [rbind map_res]; try reflexivity. apply IH.
Qed.
End Commute.

Lemma mkey_after m : mkey (after_size m) = mkey m.
Proof. exact (key_after m). Qed.

Lemma views_mkey file : lenN file < 9223372036854775808 -> forall bs pos,
  layout_at file pos bs = true ->
  map (map_tbox mkey) (map of_top (views false file pos bs))
  = map (map_tbox mkey) (map of_top (views true file pos bs)).
Proof.
  intros Hfl. induction bs as [|b t IH]; intros pos Hl; [reflexivity|].
  destruct (layout_head file pos b t Hl) as (_ & Hb & Ht & Hsz).
  rewrite !views_cons. cbn [map]. rewrite (IH _ Ht). f_equal.
  unfold view1. destruct (eqb_list (bname b) name_mdat); [|reflexivity].
  cbn [of_top map_tbox]. f_equal. symmetry. now apply key_both.
Qed.

(* DecodeFile (progressive or fragmented, with or without DecStartOnMoof) in the two modes: the same outcome
   class and, seen through the API (StartPos, LargeSize, Size(), PayloadAbsoluteOffset(), payload size of every
   mdat handle), the same File *)
Lemma frag_tree_equal file zeof bs orc1 orc2 onmoof ax :
  lenN file < 9223372036854775808 ->
  layout_at file 0 bs = true ->
  map_res (map_fstate mkey) (decode_file_frag (S (length bs)) false file zeof onmoof ax (mkRS 0 orc1))
  = map_res (map_fstate mkey) (decode_file_frag (S (length bs)) true file zeof onmoof ax (mkRS 0 orc2))
  /\ decode_file_frag (S (length bs)) true file zeof onmoof ax (mkRS 0 orc2)
     = frag_run mdat payload_size after_size onmoof ax fs0 (map of_top (views true file 0 bs)).
Proof.
  intros Hfl Hl. unfold decode_file_frag.
  rewrite (decode_file_top_ok false file zeof Hfl bs 0 orc1 Hl).
  rewrite (decode_file_top_ok true file zeof Hfl bs 0 orc2 Hl). cbn [rbind].
  split; [|reflexivity].
  rewrite !(frag_run_map mdat _ mkey payload_size after_size snd (fun k => k))
    by (intros; first [reflexivity | apply mkey_after]).
  rewrite (views_mkey file Hfl bs 0 Hl). reflexivity.
Qed.

(* A fragmented file  <init: any boxes, no mdat/moof/emsg/styp/sidx, a moov with zero stts entries>
   (moof mdat)*  : one segment starting at the first moof, one fragment per pair, fragment i = (moof i at its
   position, the mdat that immediately follows it).  Stated on the abstract machine: holds for both modes. *)
Section Pairing.
Variables (M : Type) (psz : M -> N) (asz : M -> M).

Fixpoint pairs_boxes (ps : list (N * N * M * N)) : list (tbox M) :=
  match ps with
  | [] => []
  | (mpos, msz, m, dsz) :: t => XBox n_moof mpos msz :: XMdat m dsz :: pairs_boxes t
  end.

Definition pair_frag (p : N * N * M * N) : frag M :=
  let '(mpos, msz, m, dsz) := p in
  mkFrag mpos (Some mpos) (Some (asz m)) 0 [XMdat (asz m) dsz; XBox n_moof mpos msz].

Lemma pairs_run ax : forall ps s sg,
  fs_sidxs s = [] -> fs_frag s = true -> fs_segs s = [sg] ->
  (sg_frags sg = [] \/ exists fr t, sg_frags sg = fr :: t /\ fr_moof fr <> None) ->
  exists s', frag_run M psz asz false ax s (pairs_boxes ps) = Ok s'
    /\ fs_segs s' = [mkSeg (sg_styp sg) (sg_start sg) (sg_sidxs sg) (rev (map pair_frag ps) ++ sg_frags sg)]
    /\ fs_mdat s' = fs_mdat s /\ fs_frag s' = true.
Proof.
  intros ps. induction ps as [|[[[mpos msz] m] dsz] t IH]; intros s sg Hsx Hfr Hsg Hlast.
  - exists s. cbn. rewrite Hsg. destruct sg; repeat split; auto.
  - cbn [pairs_boxes frag_run].
    (* moof *)
    unfold frag_step at 1. cbn [eqb_list n_moof n_ftyp n_moov n_sidx n_styp n_emsg N.eqb Pos.eqb andb].
    unfold start_segment_if_needed. cbn [set_segs fs_sidxs fs_segs]. rewrite Hsx, Hsg.
    cbn [lenN length N.of_nat Pos.of_succ_nat N.eqb Pos.eqb orb fs_segs set_segs].
    set (frs := match sg_frags sg with
                | [] => [mkFrag mpos None None 0 []]
                | lastFrag :: _ => match fr_moof lastFrag with
                                   | Some _ => mkFrag mpos None None 0 [] :: sg_frags sg
                                   | None => sg_frags sg
                                   end
                end).
    assert (Efrs : frs = mkFrag mpos None None 0 [] :: sg_frags sg).
    { subst frs. destruct Hlast as [E|(fr & t' & E & Hm)]; rewrite E; [reflexivity|].
      destruct (fr_moof fr); [reflexivity|contradiction]. }
    rewrite Efrs. cbn [rbind].
    (* mdat *)
    unfold frag_step at 1. cbn [fs_frag fs_last fs_segs set_segs tname sg_frags].
    cbn [eqb_list n_moof N.eqb Pos.eqb andb negb].
    cbn [frag_add eqb_list n_moof n_emsg N.eqb Pos.eqb andb fr_start fr_moof fr_mdat fr_emsgs fr_children].
    cbn [rbind sg_styp sg_start sg_sidxs].
    match goal with |- exists s', frag_run _ _ _ _ _ ?S _ = _ /\ _ => 
      destruct (IH S (mkSeg (sg_styp sg) (sg_start sg) (sg_sidxs sg)
                       (mkFrag mpos (Some mpos) (Some (asz m)) 0 [XMdat (asz m) dsz; XBox n_moof mpos msz] :: sg_frags sg)))
        as (s' & R & Sg & Md & Fr) end; try reflexivity.
    + exact Hsx.
    + right. eexists _, _. split; [reflexivity|]. cbn. discriminate.
    + exists s'. split; [exact R|]. split; [|split; [exact Md | exact Fr]].
      rewrite Sg. cbn [sg_styp sg_start sg_sidxs sg_frags map rev pair_frag]. rewrite <- app_assoc. reflexivity.
Qed.

(* the first moof of a file opens the first segment; from there on it is as if that segment had been there *)
Lemma first_moof_step ax s mpos msz :
  fs_sidxs s = [] -> fs_segs s = [] ->
  frag_step M psz asz false ax s (XBox n_moof mpos msz)
  = frag_step M psz asz false ax (set_segs M s true [mkSeg false mpos 0 []]) (XBox n_moof mpos msz).
Proof.
  intros Hsx Hsg. unfold frag_step, start_segment_if_needed. cbn [set_segs fs_sidxs fs_segs].
  rewrite Hsx, Hsg. reflexivity.
Qed.

Lemma pairs_run0 ax mpos msz m dsz ps s :
  fs_sidxs s = [] -> fs_segs s = [] ->
  exists s', frag_run M psz asz false ax s (pairs_boxes ((mpos, msz, m, dsz) :: ps)) = Ok s'
    /\ fs_segs s' = [mkSeg false mpos 0 (rev (map pair_frag ((mpos, msz, m, dsz) :: ps)))]
    /\ fs_mdat s' = fs_mdat s /\ fs_frag s' = true.
Proof.
  intros Hsx Hsg.
  destruct (pairs_run ax ((mpos, msz, m, dsz) :: ps) (set_segs M s true [mkSeg false mpos 0 []])
                      (mkSeg false mpos 0 [])) as (s' & R & Sg & Md & Fr); try reflexivity; [exact Hsx|now left|].
  exists s'. cbn [pairs_boxes frag_run] in *. rewrite first_moof_step by assumption.
  rewrite app_nil_r in Sg. auto.
Qed.
End Pairing.
