(* C08ExtTheorems.v — the C08 theorems on whole files and writers: fragmented files (Segments / Fragments / moof-mdat pairing
   in both decode modes), File.Encode / File.EncodeSW of a lazily decoded file, the lazy writer, multi-track files.
   Each theorem is closed by `exact <lemma>` and followed by Print Assumptions. *)
From V.lib Require Import Base.
From V.c08 Require Import C08Model C08Spec C08SelModel C08FragModel C08FragProofs C08EncModel C08EncProofs
     C08CopyProofs C08InterProofs C08SwModel C08SwProofs C08LwProofs.

(* DecodeFile = top-level walk + the per-box checks of the loop + File.AddChild (isFragmented, Init, File.Mdat,
   Sidxs, Segments, Fragments with Moof / Mdat / Emsgs / Children, Mfra, lastBoxType), with or without
   DecStartOnMoof, whatever the common decoder returned for the non-mdat boxes (ax: stts entry count of moov,
   anchor and references of sidx).  For every file that is exactly a sequence of boxes (any types, 8/16-byte
   headers, empty mdat boxes, mdat boxes anywhere): decoding in memory and decoding lazily end in the same
   outcome class (ok / error / panic) and build the same File as seen through the API of the mdat handles
   (StartPos, LargeSize, Size(), PayloadAbsoluteOffset(), Size()-HeaderSize()): same segments at the same
   positions, same fragments, the same mdat box attached to the same moof. *)
Theorem C08_frag_tree_equal :
  forall file zeof bs orc1 orc2 onmoof ax,
  lenN file < 9223372036854775808 ->
  layout_at file 0 bs = true ->
  map_res (map_fstate mkey) (decode_file_frag (S (length bs)) false file zeof onmoof ax (mkRS 0 orc1))
  = map_res (map_fstate mkey) (decode_file_frag (S (length bs)) true file zeof onmoof ax (mkRS 0 orc2))
  /\ decode_file_frag (S (length bs)) true file zeof onmoof ax (mkRS 0 orc2)
     = frag_run mdat payload_size after_size onmoof ax fs0 (map of_top (views true file 0 bs)).
Proof. exact frag_tree_equal. Qed.
Print Assumptions C08_frag_tree_equal.

(* which mdat goes with which moof: after any prefix that left no segment and no top-level sidx (ftyp, a
   fragmented moov, free ...), a run (moof mdat)+ gives ONE segment starting at the first moof with one
   fragment per pair: fragment i starts at moof i, holds moof i and the mdat that immediately follows it
   (whatever its representation, header size or payload size - empty mdat boxes included). *)
Theorem C08_frag_pairing :
  forall ax mpos msz (m : mdat) dsz ps s,
  fs_sidxs s = [] -> fs_segs s = [] ->
  exists s', frag_run mdat payload_size after_size false ax s (pairs_boxes mdat ((mpos, msz, m, dsz) :: ps)) = Ok s'
    /\ fs_segs s' = [mkSeg false mpos 0 (rev (map (pair_frag mdat after_size) ((mpos, msz, m, dsz) :: ps)))]
    /\ fs_mdat s' = fs_mdat s /\ fs_frag s' = true.
Proof. exact (pairs_run0 mdat payload_size after_size). Qed.
Print Assumptions C08_frag_pairing.

(* satisfiable, non-trivial: ftyp moov(fragmented) moof mdat(16-byte header, 2 bytes) moof mdat(empty), lazy mode:
   one segment at 17, fragments at 17 and 43, the second fragment's mdat is the empty box at 51 (not lazy) *)
Example C08_frag_hyps :
  let file := [0;0;0;8;102;116;121;112; 0;0;0;9;109;111;111;118;7;
               0;0;0;8;109;111;111;102; 0;0;0;1;109;100;97;116;0;0;0;0;0;0;0;18;1;2;
               0;0;0;8;109;111;111;102; 0;0;0;8;109;100;97;116] in
  let bs := [mkBD n_ftyp false 0; mkBD n_moov false 1; mkBD n_moof false 0; mkBD name_mdat true 2;
             mkBD n_moof false 0; mkBD name_mdat false 0] in
  let ax := fun p => if p =? 8 then AMoov (Some 0) else ANone in
  layout_at file 0 bs = true /\
  match decode_file_frag 7 true file true false ax (mkRS 0 [1;2;3]) with
  | Ok s => fs_frag s = true /\ fs_mdat s = None /\
            map (fun sg => (sg_start sg, map (fun fr => (fr_start fr, fr_moof fr, option_map mkey (fr_mdat fr),
                                                         option_map mdat_is_lazy (fr_mdat fr)))
                                             (sg_frags sg))) (fs_segs (fin_state s))
            = [(17, [(17, Some 17, Some (25, true, 18, 41, 2), Some true);
                     (43, Some 43, Some (51, false, 8, 59, 0), Some false)])]
  | _ => False
  end.
Proof. vm_compute. repeat split; reflexivity. Qed.

(* File.Encode (progressive file, or any file in EncModeBoxTree: every top-level child in order; boxes other
   than mdat opaque and re-encoded to their own bytes): the in-memory decoding writes the file back; the lazy
   decoding writes the file with every mdat payload left out (header only, no error); header followed by
   CopyData of the whole payload, for every mdat with a payload, writes the file back - for every short-read
   schedule of the reader. *)
Theorem C08_file_encode :
  forall file zeof orcs bs,
  lenN file < 9223372036854775808 ->
  layout_at file 0 bs = true ->
  encode_tops file (views false file 0 bs) = Ok file
  /\ encode_tops file (views true file 0 bs) = Ok (elide file 0 bs)
  /\ encode_tops_splice file zeof orcs (views true file 0 bs) = Ok file.
Proof. exact file_encode. Qed.
Print Assumptions C08_file_encode.

Example C08_file_encode_hyps :
  let file := [0;0;0;8;102;114;101;101; 0;0;0;1;109;100;97;116;0;0;0;0;0;0;0;18;1;2; 0;0;0;9;109;111;111;118;7] in
  let bs := [mkBD [102;114;101;101] false 0; mkBD name_mdat true 2; mkBD [109;111;111;118] false 1] in
  layout_at file 0 bs = true /\
  elide file 0 bs = [0;0;0;8;102;114;101;101; 0;0;0;1;109;100;97;116;0;0;0;0;0;0;0;18; 0;0;0;9;109;111;111;118;7].
Proof. vm_compute. repeat split; reflexivity. Qed.

(* the lazy writer (examples/segmenter -lazy: Fragment.AddSampleToTrack accumulates lazyDataSize, Encode writes
   the header, CopySampleData the payload): for ANY payload p written after the header of an mdat prepared
   for lenN p bytes, header ++ p is a well-formed mdat box (canonical 8- or 16-byte header announcing exactly
   lenN p payload bytes) whose payload is p. *)
Theorem C08_lazy_writer :
  forall p sp, lenN p < 9223372036854775792 ->
  let large := 4294967296 - 1 - 8 <? lenN p in
  exists h, mdat_encode (mdat_for_writing sp (lenN p)) = Ok h
    /\ lenN h = hdr_len large
    /\ header_at (h ++ p) 0 large (lenN p) = true
    /\ box_in_file (h ++ p) 0 large (lenN p) = true
    /\ lenN (h ++ p) = hdr_len large + lenN p
    /\ sub (h ++ p) (hdr_len large) (lenN p) = p.
Proof. exact lazy_writer. Qed.
Print Assumptions C08_lazy_writer.

(* CopySampleData for every track of a multi-track file: no hypothesis relates the chunks of different tracks,
   nor the order of the chunk offsets of one track *)
Theorem C08_copy_samples_multitrack :
  forall file startPos large payloadLen (tracks : list (stbl * list chunk * N * N)) ws zeof orc,
  box_in_file file startPos large payloadLen = true ->
  forallb (track_ok startPos large payloadLen) tracks = true ->
  Forall (fun t => let '(tb, chunks, a, b) := t in
            copy_sample_data true file zeof (mdat_mem file startPos large payloadLen) (Some (mkRS 0 orc)) tb chunks a b ws
            = Ok (expected_samples file tb chunks a b)
            /\ copy_sample_data true file zeof (mdat_lazy startPos large payloadLen) (Some (mkRS 0 orc)) tb chunks a b ws
            = Ok (expected_samples file tb chunks a b)) tracks.
Proof. exact copy_samples_multitrack. Qed.
Print Assumptions C08_copy_samples_multitrack.

(* satisfiable with DECREASING chunk offsets and another track's chunks in between: track 1 has chunks at 13
   (samples 1,2) and 8 (sample 3); track 2 has its chunk at 10 (between them).  Work buffer of 2 bytes,
   one-byte reads. *)
Example C08_interleaved_hyps :
  let file := [0;0;0;17;109;100;97;116; 31;32; 91;92;93; 11;12;21;22] in
  let tb1 := mkStbl [2;2;2] 0 [13;8] in
  let ch1 := [mkChunk 1 1 2; mkChunk 2 3 1] in
  let tb2 := mkStbl [1;2] 0 [10] in
  let ch2 := [mkChunk 1 1 2] in
  box_in_file file 0 false 9 = true /\
  forallb (track_ok 0 false 9) [(tb1, ch1, 1, 3); (tb2, ch2, 2, 2)] = true /\
  expected_samples file tb1 ch1 1 3 = [11;12;21;22;31;32] /\
  expected_samples file tb2 ch2 2 2 = [92;93] /\
  copy_sample_data true file true (mdat_lazy 0 false 9) (Some (mkRS 0 [1;1;1;1;1;1])) tb1 ch1 1 3 [0;0] = Ok [11;12;21;22;31;32].
Proof. vm_compute. repeat split; reflexivity. Qed.

(* the SliceWriter encode path (MdatBox.EncodeSW / EncodeHeaderWithSizeSW / File.EncodeSW on a
   bits.FixedSliceWriter: fixed buffer, a write that does not fit is skipped and sets the accumulated error) *)

(* MdatBox.EncodeSW against MdatBox.Encode, for ANY mdat box (lazy or not, any LargeSize flag, any sizes) and ANY
   writer state (capacity, bytes already written, error already accumulated or not):
   (1) no earlier error and the bytes Encode writes fit: no error, exactly those bytes are appended;
   (2) they do not fit: error, and what was appended is a PROPER prefix of them (whole header fields);
   (3) Encode refuses: EncodeSW refuses and writes nothing;  (4) an earlier accumulated error is returned;
   (5) Encode has no other outcome. *)
Theorem C08_encode_sw_equal :
  forall m w,
  (forall bs, mdat_encode m = Ok bs -> sw_err w = false -> lenN (sw_out w) + lenN bs <= sw_cap w ->
     mdat_encode_sw m w = (true, mkSW (sw_cap w) (sw_out w ++ bs) false))
  /\ (forall bs, mdat_encode m = Ok bs -> sw_cap w < lenN (sw_out w) + lenN bs ->
     exists pre rest, bs = pre ++ rest /\ rest <> [] /\
       mdat_encode_sw m w = (false, mkSW (sw_cap w) (sw_out w ++ pre) true))
  /\ (mdat_encode m = Err -> mdat_encode_sw m w = (false, w))
  /\ (sw_err w = true -> fst (mdat_encode_sw m w) = false)
  /\ (mdat_encode m = Err \/ exists bs, mdat_encode m = Ok bs).
Proof. exact encode_sw_equal. Qed.
Print Assumptions C08_encode_sw_equal.

(* the clause "encoding a lazily decoded media-data box writes exactly its header" on the SliceWriter path: for
   every mdat box lying in a file, EncodeSW of the lazily decoded box appends exactly the original header bytes
   and needs only HeaderSize() bytes of room (Size() counts the payload it does not write); with less room it
   fails; EncodeSW of the in-memory box appends header ++ payload = the original box and needs Size() bytes. *)
Theorem C08_lazy_encode_sw :
  forall file startPos large payloadLen w,
  box_in_file file startPos large payloadLen = true ->
  header_at file startPos large payloadLen = true ->
  sw_err w = false ->
  (lenN (sw_out w) + hdr_len large <= sw_cap w ->
     mdat_encode_sw (mdat_lazy startPos large payloadLen) w
     = (true, mkSW (sw_cap w) (sw_out w ++ sub file startPos (hdr_len large)) false))
  /\ (sw_cap w < lenN (sw_out w) + hdr_len large ->
     fst (mdat_encode_sw (mdat_lazy startPos large payloadLen) w) = false)
  /\ (lenN (sw_out w) + hdr_len large + payloadLen <= sw_cap w ->
     mdat_encode_sw (mdat_mem file startPos large payloadLen) w
     = (true, mkSW (sw_cap w) (sw_out w ++ sub file startPos (hdr_len large) ++ sub file (startPos + hdr_len large) payloadLen) false))
  /\ (sw_cap w < lenN (sw_out w) + hdr_len large + payloadLen ->
     fst (mdat_encode_sw (mdat_mem file startPos large payloadLen) w) = false)
  /\ sub file startPos (hdr_len large) ++ sub file (startPos + hdr_len large) payloadLen
     = sub file startPos (hdr_len large + payloadLen).
Proof. exact lazy_encode_sw. Qed.
Print Assumptions C08_lazy_encode_sw.

(* File.EncodeSW (progressive file / EncModeBoxTree; boxes other than mdat opaque) of both decodings of a file that
   is a sequence of boxes, into a writer with no earlier error: the in-memory decoding appends the file and needs
   lenN file bytes (= File.Size()); the lazy decoding appends the file with every mdat payload left out and needs
   only that many bytes (so a writer of File.Size() bytes always suffices); with less room: error. *)
Theorem C08_file_encode_sw :
  forall file bs w,
  lenN file < 9223372036854775808 ->
  layout_at file 0 bs = true -> sw_err w = false -> lenN (sw_out w) <= sw_cap w ->
  (lenN (sw_out w) + lenN file <= sw_cap w ->
     encode_tops_sw file (views false file 0 bs) w = (true, mkSW (sw_cap w) (sw_out w ++ file) false))
  /\ (lenN (sw_out w) + lenN (elide file 0 bs) <= sw_cap w ->
     encode_tops_sw file (views true file 0 bs) w = (true, mkSW (sw_cap w) (sw_out w ++ elide file 0 bs) false))
  /\ lenN (elide file 0 bs) <= lenN file
  /\ (sw_cap w < lenN (sw_out w) + lenN file -> fst (encode_tops_sw file (views false file 0 bs) w) = false)
  /\ (sw_cap w < lenN (sw_out w) + lenN (elide file 0 bs) -> fst (encode_tops_sw file (views true file 0 bs) w) = false).
Proof. exact file_encode_sw'. Qed.
Print Assumptions C08_file_encode_sw.

(* satisfiable, non-trivial: free + mdat(16-byte header, 2 bytes) + moov, a writer of 40 bytes already holding 3:
   the lazy decoding appends 33 bytes (header only), the in-memory one the 35 bytes of the file; a writer with
   room for 34 bytes takes the lazy File but not the in-memory one; EncodeSW of the lazy mdat alone into a writer
   with 15 free bytes fails after the size-1 marker and the type (8 bytes: a proper prefix of the header). *)
Example C08_encode_sw_hyps :
  let file := [0;0;0;8;102;114;101;101; 0;0;0;1;109;100;97;116;0;0;0;0;0;0;0;18;1;2; 0;0;0;9;109;111;111;118;7] in
  let bs := [mkBD [102;114;101;101] false 0; mkBD name_mdat true 2; mkBD [109;111;111;118] false 1] in
  let w := mkSW 40 [90;90;90] false in
  layout_at file 0 bs = true /\ box_in_file file 8 true 2 = true /\ header_at file 8 true 2 = true /\
  encode_tops_sw file (views true file 0 bs) w = (true, mkSW 40 ([90;90;90] ++ elide file 0 bs) false) /\
  encode_tops_sw file (views false file 0 bs) w = (true, mkSW 40 ([90;90;90] ++ file) false) /\
  fst (encode_tops_sw file (views false file 0 bs) (mkSW 37 [90;90;90] false)) = false /\
  fst (encode_tops_sw file (views true file 0 bs) (mkSW 37 [90;90;90] false)) = true /\
  mdat_encode_sw (mdat_lazy 8 true 2) (mkSW 18 [90;90;90] false) = (false, mkSW 18 [90;90;90;0;0;0;1;109;100;97;116] true) /\
  mdat_encode_sw (mdat_lazy 8 true 2) (mkSW 19 [90;90;90] false)
  = (true, mkSW 19 ([90;90;90] ++ sub file 8 16) false).
Proof. vm_compute. repeat split; reflexivity. Qed.

(* the lazy writer end to end (closes the gap between C08_lazy_writer, which takes ANY payload, and
   C08_copy_samples) *)

(* the number of bytes of samples a..b (as laid out by the chunk run) is the sum of their table sizes *)
Theorem C08_expected_samples_len :
  forall file startPos large payloadLen tb chunks a b,
  box_in_file file startPos large payloadLen = true ->
  chunks_cover a b chunks = true ->
  chunks_in_payload tb startPos large payloadLen chunks = true ->
  lenN (expected_samples file tb chunks a b) = sumN (sizes_from tb a (N.to_nat (b + 1 - a))).
Proof. exact expected_samples_len. Qed.
Print Assumptions C08_expected_samples_len.

(* examples/segmenter -lazy for one fragment of one track: Fragment.AddSampleToTrack for samples a..b
   (lazyDataSize += uint64(size), uint64 arithmetic), Encode of the fragment's mdat (header only), then
   File.CopySampleData(a..b) from the input (decoded lazily or in memory), every work buffer, every short-read
   schedule: the accumulated size IS the number of bytes copied, so header ++ copied bytes is a well-formed mdat box
   (8-byte header up to 2^32-9 payload bytes, 16-byte header above) whose payload is exactly the bytes of samples
   a..b.  Hypotheses: those of C08_copy_samples, and the total below 2^63-16. *)
Theorem C08_lazy_writer_end_to_end :
  forall file startPos large payloadLen tb chunks a b ws zeof orc sp,
  box_in_file file startPos large payloadLen = true ->
  chunks_cover a b chunks = true ->
  chunks_in_payload tb startPos large payloadLen chunks = true ->
  sumN (sizes_from tb a (N.to_nat (b + 1 - a))) < 9223372036854775792 ->
  let total := lazy_size_after (sizes_from tb a (N.to_nat (b + 1 - a))) in
  let largeW := 4294967296 - 1 - 8 <? total in
  exists h p,
    mdat_encode (mdat_for_writing sp total) = Ok h
    /\ copy_sample_data true file zeof (mdat_lazy startPos large payloadLen) (Some (mkRS 0 orc)) tb chunks a b ws = Ok p
    /\ copy_sample_data true file zeof (mdat_mem file startPos large payloadLen) (Some (mkRS 0 orc)) tb chunks a b ws = Ok p
    /\ p = expected_samples file tb chunks a b
    /\ lenN p = total
    /\ total = sumN (sizes_from tb a (N.to_nat (b + 1 - a)))
    /\ lenN h = hdr_len largeW
    /\ header_at (h ++ p) 0 largeW total = true
    /\ box_in_file (h ++ p) 0 largeW total = true
    /\ sub (h ++ p) (hdr_len largeW) total = p.
Proof. exact lazy_writer_end_to_end. Qed.
Print Assumptions C08_lazy_writer_end_to_end.

(* satisfiable, non-trivial: samples 2..3 (2 + 3 bytes) of a 3-sample track spanning a chunk boundary: the prepared
   mdat announces 5 payload bytes, the written box is 00 00 00 0d "mdat" 2 3 4 5 6 *)
Example C08_lazy_writer_end_to_end_hyps :
  let file := [0;0;0;14;109;100;97;116;1;2;3;4;5;6] in
  let tb := mkStbl [1;2;3] 0 [8;11] in
  let chunks := [mkChunk 1 1 2; mkChunk 2 3 1] in
  box_in_file file 0 false 6 = true /\ chunks_cover 2 3 chunks = true /\
  chunks_in_payload tb 0 false 6 chunks = true /\
  lazy_size_after (sizes_from tb 2 2) = 5 /\
  mdat_encode (mdat_for_writing 0 5) = Ok [0;0;0;13;109;100;97;116] /\
  copy_sample_data true file true (mdat_lazy 0 false 6) (Some (mkRS 0 [1;1])) tb chunks 2 3 [0;0] = Ok [2;3;4;5;6].
Proof. vm_compute. repeat split; reflexivity. Qed.
