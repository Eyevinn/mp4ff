(* C08SwProofs.v — MdatBox.EncodeSW / File.EncodeSW (FixedSliceWriter) against MdatBox.Encode / File.Encode. *)
From V.lib Require Import Base.
From V.c08 Require Import C08Model C08Spec C08EncModel C08ReadProofs C08HeaderProofs C08TreeProofs C08EncProofs C08SwModel.

Definition sw_push (w : swr) (d : list N) : swr := mkSW (sw_cap w) (sw_out w ++ d) (sw_err w).

Lemma sw_write_fit w d : lenN (sw_out w) + lenN d <= sw_cap w -> sw_write w d = sw_push w d.
Proof. intros H. unfold sw_write, sw_push. replace (sw_cap w <? lenN (sw_out w) + lenN d) with false by lia. reflexivity. Qed.

Lemma sw_write_nofit w d : sw_cap w < lenN (sw_out w) + lenN d -> sw_write w d = mkSW (sw_cap w) (sw_out w) true.
Proof. intros H. unfold sw_write. replace (sw_cap w <? lenN (sw_out w) + lenN d) with true by lia. reflexivity. Qed.

Lemma sw_write_cap w d : sw_cap (sw_write w d) = sw_cap w.
Proof. unfold sw_write. destruct (_ <? _); reflexivity. Qed.

Lemma sw_write_err w d : sw_err w = true -> sw_err (sw_write w d) = true.
Proof. unfold sw_write. destruct (_ <? _); cbn [sw_err]; auto. Qed.

Lemma sw_push_push w a b : sw_push (sw_push w a) b = sw_push w (a ++ b).
Proof. unfold sw_push. cbn [sw_cap sw_out sw_err]. now rewrite app_assoc. Qed.

Lemma sw_push_nil w : sw_push w [] = w.
Proof. destruct w as [c o e]. unfold sw_push. cbn [sw_cap sw_out sw_err]. now rewrite app_nil_r. Qed.

Lemma len_be32 x : lenN (be32 x) = 4. Proof. reflexivity. Qed.
Lemma len_be64 x : lenN (be64 x) = 8. Proof. reflexivity. Qed.
Lemma len_name : lenN name_mdat = 4. Proof. reflexivity. Qed.
Lemma sw_out_push w d : sw_out (sw_push w d) = sw_out w ++ d. Proof. reflexivity. Qed.
Lemma sw_cap_push w d : sw_cap (sw_push w d) = sw_cap w. Proof. reflexivity. Qed.
Lemma sw_err_push w d : sw_err (sw_push w d) = sw_err w. Proof. reflexivity. Qed.
(* room left in a writer after pushes: lengths of the pieces, then linear arithmetic *)
Ltac swl := cbn [sw_out sw_cap sw_err];
  rewrite ?sw_out_push, ?sw_cap_push, ?sw_err_push, ?lenN_app, ?len_be32, ?len_name, ?len_be64; lia.

Definition sw_writes (w : swr) (ds : list (list N)) : swr := fold_left sw_write ds w.

Lemma sw_writes_fit : forall ds w,
  lenN (sw_out w) + lenN (concat ds) <= sw_cap w -> sw_writes w ds = sw_push w (concat ds).
Proof.
  induction ds as [|d ds IH]; intros w H; cbn [sw_writes fold_left concat] in *; [now rewrite sw_push_nil|].
  rewrite lenN_app in H. rewrite sw_write_fit by lia. fold (sw_writes (sw_push w d) ds).
  rewrite IH by swl. apply sw_push_push.
Qed.

Lemma sw_writes_err : forall ds w, sw_err w = true -> sw_err (sw_writes w ds) = true.
Proof.
  induction ds as [|d ds IH]; intros w H; [exact H|]. apply (IH (sw_write w d)), sw_write_err, H.
Qed.

(* every field has at least n bytes and no field is shorter than the one before it *)
Fixpoint nondecr (n : N) (ds : list (list N)) : Prop :=
  match ds with [] => True | d :: t => n <= lenN d /\ nondecr (lenN d) t end.

(* a field that does not fit is skipped, and then every later field is too long as well *)
Lemma sw_writes_skipped : forall ds w n,
  sw_cap w < lenN (sw_out w) + n -> nondecr n ds ->
  sw_writes (mkSW (sw_cap w) (sw_out w) true) ds = mkSW (sw_cap w) (sw_out w) true.
Proof.
  induction ds as [|d ds IH]; intros w n Hn Hs; [reflexivity|]. destruct Hs as [Hd Ht].
  cbn [sw_writes fold_left]. rewrite sw_write_nofit by (cbn [sw_cap sw_out]; lia).
  apply (IH w (lenN d)); [lia|exact Ht].
Qed.

(* so what has been written when the fields do not all fit is a proper prefix of them *)
Lemma sw_writes_nofit : forall ds n w,
  ds <> [] -> 1 <= n -> nondecr n ds -> sw_cap w < lenN (sw_out w) + lenN (concat ds) ->
  exists pre rest, concat ds = pre ++ rest /\ rest <> [] /\
    sw_writes w ds = mkSW (sw_cap w) (sw_out w ++ pre) true.
Proof.
  induction ds as [|d ds IH]; intros n w Hne Hn Hs Hf; [contradiction|]. clear Hne.
  destruct Hs as [Hd Ht]. cbn [concat] in Hf. rewrite lenN_app in Hf. cbn [sw_writes fold_left concat].
  destruct (N.ltb_spec (sw_cap w) (lenN (sw_out w) + lenN d)) as [H1|H1].
  - exists [], (d ++ concat ds). split; [reflexivity|]. split.
    + intros E. apply (f_equal lenN) in E. rewrite lenN_app, lenN_nil in E. lia.
    + rewrite sw_write_nofit, app_nil_r by exact H1. now apply (sw_writes_skipped ds w (lenN d)).
  - rewrite sw_write_fit by exact H1.
    destruct (IH (lenN d) (sw_push w d)) as (pre & rest & E & Hr & Hw); [|lia|exact Ht|swl|].
    { intros ->. cbn [concat] in Hf. rewrite lenN_nil in Hf. lia. }
    exists (d ++ pre), rest. fold (sw_writes (sw_push w d) ds).
    rewrite E, Hw, app_assoc. cbn [sw_push sw_cap sw_out]. now rewrite app_assoc.
Qed.

Definition header_fields (size : N) (large : bool) : list (list N) :=
  if large then [be32 1; name_mdat; be64 size] else [be32 (u32 size); name_mdat].

Lemma header_fields_nondecr size large : header_fields size large <> [] /\ nondecr 1 (header_fields size large).
Proof. destruct large; (split; [discriminate|]); cbn [header_fields nondecr]; rewrite ?len_be32, ?len_name, ?len_be64; lia. Qed.

(* Encode and EncodeSW write the same header fields, or both refuse *)
Lemma encode_header_fields size large :
  encode_header_with_size size large
  = if negb large && (4294967296 <=? size) then Err else Ok (concat (header_fields size large)).
Proof.
  unfold encode_header_with_size, header_fields.
  destruct large; cbn [negb andb concat]; [|destruct (4294967296 <=? size)]; now rewrite ?app_nil_r.
Qed.

Lemma encode_header_sw_fields size large w :
  encode_header_with_size_sw size large w
  = if negb large && (4294967296 <=? size) then (false, w)
    else let w' := sw_writes w (header_fields size large) in (negb (sw_err w'), w').
Proof. unfold encode_header_with_size_sw. now destruct large. Qed.

(* the bytes fit: EncodeSW appends exactly what Encode writes, no error *)
Lemma mdat_encode_sw_fit m w bs :
  mdat_encode m = Ok bs -> sw_err w = false -> lenN (sw_out w) + lenN bs <= sw_cap w ->
  mdat_encode_sw m w = (true, sw_push w bs).
Proof.
  unfold mdat_encode, mdat_encode_sw. destruct (mdat_size m) as [size large].
  rewrite encode_header_fields, encode_header_sw_fields.
  destruct (negb large && (4294967296 <=? size)); [discriminate|]. cbn [rbind].
  intros E He Hf. injection E as <-. rewrite lenN_app in Hf.
  rewrite sw_writes_fit by lia. cbn zeta. rewrite sw_err_push, He. cbn [negb].
  rewrite sw_write_fit by swl. now rewrite !sw_err_push, He, sw_push_push.
Qed.

(* the bytes do not fit: error, and the buffer holds the old contents plus a proper prefix of the box (whole
   header fields only) *)
Lemma mdat_encode_sw_nofit m w bs :
  mdat_encode m = Ok bs -> sw_cap w < lenN (sw_out w) + lenN bs ->
  exists pre rest, bs = pre ++ rest /\ rest <> [] /\
    mdat_encode_sw m w = (false, mkSW (sw_cap w) (sw_out w ++ pre) true).
Proof.
  unfold mdat_encode, mdat_encode_sw. destruct (mdat_size m) as [size large].
  rewrite encode_header_fields, encode_header_sw_fields.
  destruct (negb large && (4294967296 <=? size)); [discriminate|]. cbn [rbind].
  intros E Hf. injection E as <-. rewrite lenN_app in Hf.
  destruct (N.ltb_spec (sw_cap w) (lenN (sw_out w) + lenN (concat (header_fields size large)))) as [H1|H1].
  - (* already the header does not fit *)
    destruct (header_fields_nondecr size large) as [Hne Hnd].
    destruct (sw_writes_nofit _ 1 w Hne (N.le_refl 1) Hnd H1) as (pre & rest & -> & Hr & ->).
    exists pre, (rest ++ Data m). rewrite app_assoc. repeat split.
    intros En. now apply app_eq_nil in En.
  - (* the header fits, the payload does not *)
    rewrite sw_writes_fit by exact H1. cbn zeta. rewrite sw_err_push.
    eexists _, (Data m). split; [reflexivity|]. split.
    + intros En. rewrite En, lenN_nil in Hf. lia.
    + destruct (sw_err w) eqn:He; cbn [negb]; [unfold sw_push; now rewrite He|].
      now rewrite sw_write_nofit by swl.
Qed.

(* Encode refuses (size >= 2^32 without the large flag: cannot happen after Size(), kept for the mirror) *)
Lemma mdat_encode_sw_refused m w : mdat_encode m = Err -> mdat_encode_sw m w = (false, w).
Proof.
  unfold mdat_encode, mdat_encode_sw. destruct (mdat_size m) as [size large].
  rewrite encode_header_fields, encode_header_sw_fields.
  destruct (negb large && (4294967296 <=? size)); [reflexivity|discriminate].
Qed.

(* an error accumulated before the call is returned (whatever fits is still written) *)
Lemma mdat_encode_sw_sticky m w : sw_err w = true -> fst (mdat_encode_sw m w) = false.
Proof.
  intros He. unfold mdat_encode_sw. destruct (mdat_size m) as [size large].
  rewrite encode_header_sw_fields.
  destruct (negb large && (4294967296 <=? size)); [reflexivity|]. cbn zeta. now rewrite sw_writes_err.
Qed.

Lemma mdat_encode_total m : mdat_encode m = Err \/ exists bs, mdat_encode m = Ok bs.
Proof.
  unfold mdat_encode. destruct (mdat_size m) as [size large]. rewrite encode_header_fields.
  destruct (negb large && (4294967296 <=? size)); [now left|right]. eexists. reflexivity.
Qed.

(* the clause of the property: EncodeSW of the lazily decoded box writes exactly the original header bytes and
   needs only HeaderSize() bytes of room (Size() counts the payload); EncodeSW of the in-memory box writes the
   whole box; header ++ payload = box.  With less room: error in either mode. *)
Lemma lazy_encode_sw file startPos large payloadLen w :
  box_in_file file startPos large payloadLen = true ->
  header_at file startPos large payloadLen = true ->
  sw_err w = false ->
  (lenN (sw_out w) + hdr_len large <= sw_cap w ->
     mdat_encode_sw (mdat_lazy startPos large payloadLen) w
     = (true, mkSW (sw_cap w) (sw_out w ++ sub file startPos (hdr_len large)) false))
  /\ (sw_cap w < lenN (sw_out w) + hdr_len large ->
     fst (mdat_encode_sw (mdat_lazy startPos large payloadLen) w) = false)
  /\ (lenN (sw_out w) + hdr_len large + payloadLen <= sw_cap w ->
     mdat_encode_sw (mdat_mem file startPos large payloadLen) w
     = (true, mkSW (sw_cap w) (sw_out w ++ sub file startPos (hdr_len large) ++ sub file (startPos + hdr_len large) payloadLen) false))
  /\ (sw_cap w < lenN (sw_out w) + hdr_len large + payloadLen ->
     fst (mdat_encode_sw (mdat_mem file startPos large payloadLen) w) = false)
  /\ sub file startPos (hdr_len large) ++ sub file (startPos + hdr_len large) payloadLen
     = sub file startPos (hdr_len large + payloadLen).
Proof.
  intros Hb Hh He.
  destruct (header_plus_payload file startPos large payloadLen Hb Hh) as (EL & Happ & EM & _ & _).
  unfold box_in_file in Hb. pose proof (hdr_len_bound large).
  assert (L1 : lenN (sub file startPos (hdr_len large)) = hdr_len large) by (apply sub_length; lia).
  assert (L2 : lenN (sub file startPos (hdr_len large + payloadLen)) = hdr_len large + payloadLen)
    by (apply sub_length; lia).
  assert (Hpush : forall d, sw_push w d = mkSW (sw_cap w) (sw_out w ++ d) false) by (intros d; unfold sw_push; now rewrite He).
  repeat split; [| | | |exact Happ]; intros Hf.
  - rewrite <- Hpush. apply mdat_encode_sw_fit; [exact EL|exact He|lia].
  - destruct (mdat_encode_sw_nofit _ w _ EL) as (pre & rest & _ & _ & ->); [lia|reflexivity].
  - rewrite Happ, <- Hpush. apply mdat_encode_sw_fit; [exact EM|exact He|lia].
  - destruct (mdat_encode_sw_nofit _ w _ EM) as (pre & rest & _ & _ & ->); [lia|reflexivity].
Qed.

Lemma encode_top_sw_fit file t w a :
  encode_top file t = Ok a -> sw_err w = false -> lenN (sw_out w) + lenN a <= sw_cap w ->
  encode_top_sw file t w = (true, sw_push w a).
Proof.
  destruct t as [name sp size|m size]; cbn [encode_top encode_top_sw].
  - intros E He Hf. injection E as <-. rewrite sw_write_fit by exact Hf. cbn [sw_push sw_err]. now rewrite He.
  - apply mdat_encode_sw_fit.
Qed.

Lemma encode_top_sw_nofit file t w a :
  encode_top file t = Ok a -> sw_cap w < lenN (sw_out w) + lenN a ->
  fst (encode_top_sw file t w) = false.
Proof.
  destruct t as [name sp size|m size]; cbn [encode_top encode_top_sw].
  - intros E Hf. injection E as <-. rewrite sw_write_nofit by exact Hf. reflexivity.
  - intros E Hf. destruct (mdat_encode_sw_nofit m w a E Hf) as (pre & rest & _ & _ & ->). reflexivity.
Qed.

(* everything fits: File.EncodeSW appends exactly what File.Encode writes *)
Lemma encode_tops_sw_fit file : forall ts w bs,
  encode_tops file ts = Ok bs -> sw_err w = false -> lenN (sw_out w) + lenN bs <= sw_cap w ->
  encode_tops_sw file ts w = (true, sw_push w bs).
Proof.
  induction ts as [|t r IH]; intros w bs E He Hf; cbn [encode_tops encode_tops_sw] in *.
  - injection E as <-. now rewrite sw_push_nil.
  - destruct (encode_top file t) as [a| | |] eqn:Ea; cbn [rbind] in E; try discriminate.
    destruct (encode_tops file r) as [b| | |] eqn:Eb; cbn [rbind] in E; try discriminate.
    injection E as <-. rewrite lenN_app in Hf.
    rewrite (encode_top_sw_fit file t w a Ea He) by lia.
    rewrite (IH (sw_push w a) b eq_refl); [|exact He|swl].
    now rewrite sw_push_push.
Qed.

(* it does not fit: error (somewhere along the children) *)
Lemma encode_tops_sw_nofit file : forall ts w bs,
  encode_tops file ts = Ok bs -> sw_err w = false -> lenN (sw_out w) <= sw_cap w ->
  sw_cap w < lenN (sw_out w) + lenN bs ->
  fst (encode_tops_sw file ts w) = false.
Proof.
  induction ts as [|t r IH]; intros w bs E He Hwf Hf; cbn [encode_tops encode_tops_sw] in *.
  - injection E as <-. change (lenN (@nil N)) with 0 in Hf. lia.
  - destruct (encode_top file t) as [a| | |] eqn:Ea; cbn [rbind] in E; try discriminate.
    destruct (encode_tops file r) as [b| | |] eqn:Eb; cbn [rbind] in E; try discriminate.
    injection E as <-. rewrite lenN_app in Hf.
    destruct (N.ltb_spec (sw_cap w) (lenN (sw_out w) + lenN a)) as [H1|H1].
    + assert (F := encode_top_sw_nofit file t w a Ea H1). destruct (encode_top_sw file t w) as [ok w1].
      cbn [fst] in F. subst ok. reflexivity.
    + rewrite (encode_top_sw_fit file t w a Ea He H1).
      apply (IH (sw_push w a) b eq_refl); [exact He|swl|swl].
Qed.

Lemma lenN_elide_le file : forall bs pos, layout_at file pos bs = true -> lenN (elide file pos bs) + pos <= lenN file.
Proof.
  induction bs as [|b t IH]; intros pos H.
  - cbn [layout_at elide] in *. rewrite lenN_nil. apply N.eqb_eq in H. lia.
  - destruct (layout_head file pos b t H) as (_ & Hb & Ht & _). specialize (IH _ Ht).
    cbn [elide]. rewrite lenN_app, N.add_assoc.
    pose proof (sub_length_le file pos (hdr_len (blarge b))).
    pose proof (sub_length_le file pos (hdr_len (blarge b) + bplen b)).
    destruct (eqb_list (bname b) name_mdat); lia.
Qed.

(* File.EncodeSW (progressive file / EncModeBoxTree) of both decodings of a file that is a sequence of boxes:
   - in memory: needs lenN file bytes of room (= File.Size()) and appends the file;
   - lazily decoded: appends the file with every mdat payload left out (header only) and needs only that much
     room - in particular a writer of File.Size() bytes (which counts the payloads in both modes) is enough;
   - with less room than that: error, in either mode. *)
Lemma file_encode_sw file bs w : lenN file < 9223372036854775808 ->
  layout_at file 0 bs = true -> sw_err w = false -> lenN (sw_out w) <= sw_cap w ->
  (lenN (sw_out w) + lenN file <= sw_cap w ->
     encode_tops_sw file (views false file 0 bs) w = (true, sw_push w file))
  /\ (lenN (sw_out w) + lenN (elide file 0 bs) <= sw_cap w ->
     encode_tops_sw file (views true file 0 bs) w = (true, sw_push w (elide file 0 bs)))
  /\ lenN (elide file 0 bs) <= lenN file
  /\ (sw_cap w < lenN (sw_out w) + lenN file -> fst (encode_tops_sw file (views false file 0 bs) w) = false)
  /\ (sw_cap w < lenN (sw_out w) + lenN (elide file 0 bs) -> fst (encode_tops_sw file (views true file 0 bs) w) = false).
Proof.
  intros Hfl Hl He Hwf. destruct (file_encode file true (fun _ => []) bs Hfl Hl) as (A & B & _).
  assert (Le := lenN_elide_le file bs 0 Hl).
  repeat split.
  - intros Hf. now apply encode_tops_sw_fit.
  - intros Hf. now apply encode_tops_sw_fit.
  - lia.
  - intros Hf. now apply (encode_tops_sw_nofit file _ w file).
  - intros Hf. now apply (encode_tops_sw_nofit file _ w (elide file 0 bs)).
Qed.

(* the four cases of MdatBox.EncodeSW against MdatBox.Encode, for ANY mdat box and ANY writer state *)
Lemma encode_sw_equal m w :
  (forall bs, mdat_encode m = Ok bs -> sw_err w = false -> lenN (sw_out w) + lenN bs <= sw_cap w ->
     mdat_encode_sw m w = (true, mkSW (sw_cap w) (sw_out w ++ bs) false))
  /\ (forall bs, mdat_encode m = Ok bs -> sw_cap w < lenN (sw_out w) + lenN bs ->
     exists pre rest, bs = pre ++ rest /\ rest <> [] /\
       mdat_encode_sw m w = (false, mkSW (sw_cap w) (sw_out w ++ pre) true))
  /\ (mdat_encode m = Err -> mdat_encode_sw m w = (false, w))
  /\ (sw_err w = true -> fst (mdat_encode_sw m w) = false)
  /\ (mdat_encode m = Err \/ exists bs, mdat_encode m = Ok bs).
Proof.
  split; [|split; [|split; [|split]]].
  - intros bs E He Hf. rewrite (mdat_encode_sw_fit m w bs E He Hf). unfold sw_push. now rewrite He.
  - intros bs. apply mdat_encode_sw_nofit.
  - apply mdat_encode_sw_refused.
  - apply mdat_encode_sw_sticky.
  - apply mdat_encode_total.
Qed.

Lemma file_encode_sw' file bs w : lenN file < 9223372036854775808 ->
  layout_at file 0 bs = true -> sw_err w = false -> lenN (sw_out w) <= sw_cap w ->
  (lenN (sw_out w) + lenN file <= sw_cap w ->
     encode_tops_sw file (views false file 0 bs) w = (true, mkSW (sw_cap w) (sw_out w ++ file) false))
  /\ (lenN (sw_out w) + lenN (elide file 0 bs) <= sw_cap w ->
     encode_tops_sw file (views true file 0 bs) w = (true, mkSW (sw_cap w) (sw_out w ++ elide file 0 bs) false))
  /\ lenN (elide file 0 bs) <= lenN file
  /\ (sw_cap w < lenN (sw_out w) + lenN file -> fst (encode_tops_sw file (views false file 0 bs) w) = false)
  /\ (sw_cap w < lenN (sw_out w) + lenN (elide file 0 bs) -> fst (encode_tops_sw file (views true file 0 bs) w) = false).
Proof.
  intros Hfl Hl He Hwf. destruct (file_encode_sw file bs w Hfl Hl He Hwf) as (A & B & C & D & E).
  unfold sw_push in A, B. rewrite He in A, B. repeat split; assumption.
Qed.
