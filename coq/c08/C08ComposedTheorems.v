(* C08ComposedTheorems.v — C08_copy_samples composed with the sample-table model of C09 (imported
   read-only from coq/c09): CopySampleData from the stsc entries, for consistent tables and every
   1 <= a <= b <= N.  Kept apart from C08Theorems.v so that the C08 theorems do not depend on C09 files. *)
From V.lib Require Import Base.
From V.c08 Require Import C08Model C08Spec C08C09Proofs.
From V.c09 Require C09Model C09Spec.

(* for consistent sample tables (C09Spec.consistent), every sample interval 1 <= a <= b <= N, every work
   buffer, short-read oracle and reader behaviour: the model of StscBox.GetContainingChunks succeeds and,
   when the chunks it returns lie inside the mdat payload, CopySampleData writes exactly the bytes of
   samples a..b in both modes *)
Theorem C08_copy_samples_end_to_end :
  forall file startPos large payloadLen (tb : C09Model.tables) a b ws zeof orc,
  box_in_file file startPos large payloadLen = true ->
  C09Spec.consistent tb = true ->
  1 <= a -> a <= b -> b <= C09Spec.nsamples tb ->
  exists l, C09Model.stsc_get_containing_chunks (C09Model.sc_entries (C09Model.t_stsc tb)) a b = Ok l /\
    (chunks_in_payload (conv_tb tb) startPos large payloadLen (map conv_chunk l) = true ->
     copy_sample_data true file zeof (mdat_mem file startPos large payloadLen) (Some (mkRS 0 orc))
                      (conv_tb tb) (map conv_chunk l) a b ws
     = Ok (expected_samples file (conv_tb tb) (map conv_chunk l) a b)
     /\ copy_sample_data true file zeof (mdat_lazy startPos large payloadLen) (Some (mkRS 0 orc))
                         (conv_tb tb) (map conv_chunk l) a b ws
     = Ok (expected_samples file (conv_tb tb) (map conv_chunk l) a b)).
Proof. exact copy_samples_end_to_end. Qed.
Print Assumptions C08_copy_samples_end_to_end.

(* satisfiable: 3 samples (sizes 1,2,3) in chunks of 2 and 1 samples at offsets 8 and 11 *)
Example C08_end_to_end_hyps :
  let file := [0;0;0;14;109;100;97;116;1;2;3;4;5;6] in
  let tb := C09Model.mkTables [3] [1] None
              (C09Model.mkStsc [C09Model.mkEntry 1 2 1; C09Model.mkEntry 2 1 3] 1 [])
              (C09Model.mkStsz 0 3 [1;2;3]) (Some [8;11]) None None None in
  C09Spec.consistent tb = true /\
  C09Model.stsc_get_containing_chunks (C09Model.sc_entries (C09Model.t_stsc tb)) 2 3
  = Ok [C09Model.mkChunk 1 1 2; C09Model.mkChunk 2 3 1] /\
  chunks_in_payload (conv_tb tb) 0 false 6 [mkChunk 1 1 2; mkChunk 2 3 1] = true /\
  expected_samples file (conv_tb tb) [mkChunk 1 1 2; mkChunk 2 3 1] 2 3 = [2;3;4;5;6].
Proof. vm_compute. repeat split; reflexivity. Qed.
