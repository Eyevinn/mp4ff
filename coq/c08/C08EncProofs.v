(* C08EncProofs.v — File.Encode of the two decodings of a file; header + copied payload = the original. *)
From V.lib Require Import Base.
From V.c08 Require Import C08Model C08Spec C08ReadProofs C08HeaderProofs C08TreeProofs C08SelModel C08SelProofs C08EncModel.

Lemma pao_both file pos large plen :
  pos + hdr_len large + plen <= lenN file -> lenN file < 9223372036854775808 ->
  (large = true \/ 8 + plen < 4294967296) ->
  payload_abs_offset (after_size (mdat_lazy pos large plen)) = pos + hdr_len large
  /\ payload_abs_offset (after_size (mdat_mem file pos large plen)) = pos + hdr_len large.
Proof.
  intros Hb Hfl Hsz. pose proof (hdr_len_bound large). unfold after_size.
  rewrite mdat_size_lazy, mdat_size_mem by first [assumption|lia]. cbn [snd mdat_lazy mdat_mem StartPos].
  now rewrite !pao_mk by lia.
Qed.

(* one mdat box of the layout: Encode and the writer pattern, both representations *)
Lemma enc_mdat_ok file zeof orcs pos large plen :
  pos + hdr_len large + plen <= lenN file -> lenN file < 9223372036854775808 ->
  (large = true \/ 8 + plen < 4294967296) -> header_at file pos large plen = true ->
  let sz := hdr_len large + plen in
  encode_top file (TMdat (mdat_mem file pos large plen) sz) = Ok (sub file pos sz)
  /\ encode_top file (TMdat (mdat_lazy pos large plen) sz) = Ok (sub file pos (hdr_len large))
  /\ encode_top_splice file zeof orcs (TMdat (mdat_lazy pos large plen) sz) = Ok (sub file pos sz)
  /\ (0 < plen -> encode_top_splice file zeof orcs (TMdat (mdat_mem file pos large plen) sz)
                  = Ok (sub file pos sz ++ sub file (pos + hdr_len large) plen)).
Proof.
  intros Hb Hfl Hsz Hh sz.
  assert (Hbox : box_in_file file pos large plen = true) by (unfold box_in_file; lia).
  destruct (header_plus_payload file pos large plen Hbox Hh) as (E1 & E2 & E3 & _).
  destruct (payload_size_both file pos large plen Hb Hfl Hsz) as [P1 P2].
  destruct (pao_both file pos large plen Hb Hfl Hsz) as [A1 A2].
  (* CopyData(PayloadAbsoluteOffset(), Size()-HeaderSize()) of a box with a payload copies that payload *)
  assert (Hcopy : 0 < plen ->
            copy_data true file zeof (mdat_mem file pos large plen) (Z.of_N (pos + hdr_len large)) (Z.of_N plen)
                      (Some (mkRS 0 (orcs pos))) = Ok (sub file (pos + hdr_len large) plen)
            /\ copy_data true file zeof (mdat_lazy pos large plen) (Z.of_N (pos + hdr_len large)) (Z.of_N plen)
                         (Some (mkRS 0 (orcs pos))) = Ok (sub file (pos + hdr_len large) plen)).
  { intros Hpl.
    assert (Hv : valid_range pos large plen (Z.of_N (pos + hdr_len large)) (Z.of_N plen) = true)
      by (unfold valid_range; lia).
    destruct (read_equal file pos large plen _ _ zeof (orcs pos) Hbox Hv) as (_ & _ & C1 & C2).
    rewrite !N2Z.id in C1, C2. now split. }
  cbn [encode_top encode_top_splice]. rewrite E1, E3, P1, P2, A1, A2. cbn [rbind mdat_lazy mdat_mem StartPos].
  repeat split.
  - destruct (plen =? 0) eqn:Ez.
    + subst sz. now replace plen with 0 by lia; rewrite N.add_0_r.
    + destruct Hcopy as [_ ->]; [lia|]. subst sz. now rewrite <- E2.
  - intros Hpl. replace (plen =? 0) with false by lia. now destruct (Hcopy Hpl) as [-> _].
Qed.

(* File.Encode of the in-memory decoding reproduces the file; of the lazy decoding it writes the file with
   every mdat payload left out; the writer pattern on the lazy decoding reproduces the file *)
Lemma file_encode_at file zeof orcs : lenN file < 9223372036854775808 -> forall bs pos,
  layout_at file pos bs = true ->
  encode_tops file (views false file pos bs) = Ok (sub file pos (lenN file - pos))
  /\ encode_tops file (views true file pos bs) = Ok (elide file pos bs)
  /\ encode_tops_splice file zeof orcs (views true file pos bs) = Ok (sub file pos (lenN file - pos)).
Proof.
  intros Hfl. induction bs as [|b t IH]; intros pos Hl.
  - cbn [layout_at] in Hl. apply N.eqb_eq in Hl. subst pos. rewrite N.sub_diag, sub_0. cbn. auto.
  - destruct (layout_head file pos b t Hl) as (Hh & Hb & Ht & Hsz).
    destruct (IH _ Ht) as (I1 & I2 & I3).
    rewrite !views_cons. cbn [encode_tops encode_tops_splice elide]. rewrite N.add_assoc, I1, I2, I3.
    assert (R : sub file pos (hdr_len (blarge b) + bplen b)
                ++ sub file (pos + hdr_len (blarge b) + bplen b) (lenN file - (pos + hdr_len (blarge b) + bplen b))
                = sub file pos (lenN file - pos)).
    { rewrite <- N.add_assoc, sub_app. f_equal. lia. }
    unfold view1. destruct (eqb_list (bname b) name_mdat) eqn:En.
    + apply eqb_list_eq in En. rewrite En, <- header_at_mdat in Hh.
      destruct (enc_mdat_ok file zeof orcs pos (blarge b) (bplen b) Hb Hfl Hsz Hh) as (E1 & E2 & E3 & _).
      rewrite E1, E2, E3. cbn [rbind]. rewrite R. auto.
    + cbn [encode_top encode_top_splice rbind]. rewrite R. auto.
Qed.

Lemma file_encode file zeof orcs bs : lenN file < 9223372036854775808 ->
  layout_at file 0 bs = true ->
  encode_tops file (views false file 0 bs) = Ok file
  /\ encode_tops file (views true file 0 bs) = Ok (elide file 0 bs)
  /\ encode_tops_splice file zeof orcs (views true file 0 bs) = Ok file.
Proof.
  intros Hfl Hl. destruct (file_encode_at file zeof orcs Hfl bs 0 Hl) as (A & B & C).
  rewrite N.sub_0_r, sub_whole in A, C. auto.
Qed.

(* An mdat box prepared for `lenN p` bytes written separately: Encode writes a canonical header announcing
   exactly that payload (16-byte header iff the payload does not fit 32 bits), so header ++ p is a well-formed
   mdat box of the announced size with payload p - whatever p is (CopySampleData's output, see
   C08_copy_samples, when lazyDataSize was accumulated from the same sample sizes). *)
Lemma lazy_writer p sp : lenN p < 9223372036854775792 ->
  let large := 4294967296 - 1 - 8 <? lenN p in
  exists h, mdat_encode (mdat_for_writing sp (lenN p)) = Ok h
    /\ lenN h = hdr_len large
    /\ header_at (h ++ p) 0 large (lenN p) = true
    /\ box_in_file (h ++ p) 0 large (lenN p) = true
    /\ lenN (h ++ p) = hdr_len large + lenN p
    /\ sub (h ++ p) (hdr_len large) (lenN p) = p.
Proof.
  intros Hp large.
  assert (Hsz : large = true \/ 8 + lenN p < 4294967296) by (subst large; lia).
  assert (Hs : mdat_size (mdat_for_writing sp (lenN p)) = (hdr_len large + lenN p, large)).
  { rewrite (mdat_size_eq _ (lenN p)); [reflexivity| |lia].
    cbn [mdat_for_writing lazyDataSize Data]. now destruct (lenN p). }
  set (h := canonical_header large (lenN p)).
  assert (Hlh : lenN h = hdr_len large) by apply canonical_header_len.
  exists h. split; [|split; [exact Hlh|]].
  { rewrite (mdat_encode_eq _ _ _ Hs Hsz). cbn [mdat_for_writing Data]. now rewrite app_nil_r. }
  clearbody large. pose proof (hdr_len_bound large). rewrite lenN_app, Hlh. repeat split.
  - unfold header_at. rewrite <- Hlh, sub_app_l, eqb_list_refl. cbn [andb].
    destruct Hsz as [->|Hlt]; [reflexivity|]. apply orb_true_iff. right. lia.
  - unfold box_in_file. rewrite lenN_app. lia.
  - rewrite <- Hlh. apply sub_app_r.
Qed.
