(* C08HeaderProofs.v — the header of a box lying in a file: what DecodeHeader reads, what the two decodings of
   an mdat box are, their Size(), and Encode of both. *)
From V.lib Require Import Base.
From V.c08 Require Import C08Model C08Spec C08ReadProofs.

Lemma eqb_list_eq a b : eqb_list a b = true -> a = b.
Proof.
  revert b. induction a as [|x a IH]; intros [|y b] H; cbn [eqb_list] in H; try discriminate; [reflexivity|].
  apply andb_true_iff in H. destruct H as [H1 H2]. apply N.eqb_eq in H1. subst. f_equal. now apply IH.
Qed.

Lemma eqb_list_refl a : eqb_list a a = true.
Proof. induction a as [|x a IH]; [reflexivity|]. cbn [eqb_list]. now rewrite N.eqb_refl. Qed.

(* the accumulator of the big-endian fold is shifted by one byte per element *)
Lemma get_be_acc l : forall acc, fold_left (fun a b => a * 256 + b) l acc = acc * 256 ^ lenN l + get_be l.
Proof.
  unfold get_be. induction l as [|x l IH]; intros acc; cbn [fold_left].
  - rewrite lenN_nil, N.pow_0_r. lia.
  - rewrite IH, (IH (0 * 256 + x)), lenN_cons, N.add_1_l, N.pow_succ_r'. lia.
Qed.

Lemma get_be_app a b : get_be (a ++ b) = get_be a * 256 ^ lenN b + get_be b.
Proof. unfold get_be at 1. rewrite fold_left_app. apply get_be_acc. Qed.

Lemma get_be32 x : x < 4294967296 -> get_be (be32 x) = x.
Proof. intros H. unfold be32, get_be. cbn [fold_left]. lia. Qed.

Lemma get_be64 x : x < 18446744073709551616 -> get_be (be64 x) = x.
Proof.
  intros H. unfold be64. rewrite get_be_app, !get_be32.
  - change (256 ^ lenN (be32 (x mod 4294967296))) with 4294967296.
    rewrite (N.div_mod x 4294967296) at 3 by discriminate. lia.
  - apply N.mod_lt. discriminate.
  - apply N.div_lt_upper_bound; [discriminate|exact H].
Qed.

Lemma app_len_inv {A} (a b c d : list A) : a ++ b = c ++ d -> length a = length c -> a = c /\ b = d.
Proof.
  revert c. induction a as [|x a IH]; intros [|y c] H L; cbn in *; try discriminate; [now split|].
  injection H as -> H. destruct (IH c H) as [-> ->]; [lia|now split].
Qed.

Lemma hdr_len_large large : (8 <? hdr_len large) = large.
Proof. now destruct large. Qed.

Lemma header_at_n_inv file pos name large plen :
  header_at_n file pos name large plen = true ->
  sub file pos (hdr_len large) = canonical_header_n name large plen
  /\ (large = true \/ 8 + plen < 4294967296) /\ length name = 4%nat.
Proof.
  unfold header_at_n. intros H.
  apply andb_true_iff in H. destruct H as [H Hn]. apply andb_true_iff in H. destruct H as [H Hsz].
  apply eqb_list_eq in H. apply Nat.eqb_eq in Hn. repeat split; [exact H| |exact Hn].
  destruct large; [now left|right]. cbn [orb] in Hsz. lia.
Qed.

Lemma header_at_mdat file pos large plen :
  header_at file pos large plen = header_at_n file pos name_mdat large plen.
Proof. symmetry. apply andb_true_r. Qed.

Lemma decode_header_ok file zeof pos name large plen orc :
  pos + hdr_len large + plen <= lenN file -> lenN file < 9223372036854775808 ->
  header_at_n file pos name large plen = true ->
  exists orc',
    decode_header file zeof (mkRS pos orc)
    = RfOk (mkHdr name (hdr_len large + plen) (hdr_len large), mkRS (pos + hdr_len large) orc').
Proof.
  intros Hb Hfl Hh. apply header_at_n_inv in Hh. destruct Hh as (Hh & Hsz & Hn4).
  destruct name as [|n1 [|n2 [|n3 [|n4 [|? ?]]]]]; try discriminate. clear Hn4.
  pose proof (hdr_len_bound large) as Hl.
  unfold decode_header.
  destruct (read_full_ok file zeof (mkRS pos orc) 8) as (o1 & ->); [cbn [rpos]; lia|].
  cbn [rpos].
  destruct large; cbn [hdr_len canonical_header_n] in *.
  - (* 64-bit size: the first 8 bytes are 00 00 00 01 and the type, the next 8 the size *)
    change 16 with (8 + 8) in Hh at 1. rewrite <- sub_app in Hh.
    change (be32 1 ++ [n1; n2; n3; n4] ++ be64 (16 + plen))
      with ((be32 1 ++ [n1; n2; n3; n4]) ++ be64 (16 + plen)) in Hh.
    apply app_len_inv in Hh.
    2:{ change (length (be32 1 ++ [n1; n2; n3; n4])) with 8%nat.
        assert (L := sub_length file pos 8). unfold lenN in *. lia. }
    destruct Hh as [-> Hb2].
    change (get_be (firstn 4 (be32 1 ++ [n1; n2; n3; n4]))) with 1.
    change (1 =? 1) with true. cbn match.
    destruct (read_full_ok file zeof (mkRS (pos + 8) o1) 8) as (o2 & ->); [cbn [rpos]; lia|].
    cbn [rpos]. rewrite Hb2, get_be64 by lia.
    replace (16 + plen <? 16) with false by lia.
    exists o2. change (skipn 4 (be32 1 ++ [n1; n2; n3; n4])) with [n1; n2; n3; n4].
    now rewrite <- N.add_assoc.
  - rewrite Hh.
    change (firstn 4 (be32 (8 + plen) ++ [n1; n2; n3; n4])) with (be32 (8 + plen)).
    rewrite get_be32 by lia.
    replace (8 + plen =? 1) with false by lia.
    replace (8 + plen =? 0) with false by lia.
    replace (8 + plen <? 8) with false by lia.
    exists o1. reflexivity.
Qed.

Lemma read_box_body_ok file pos name large plen orc :
  pos + hdr_len large + plen <= lenN file ->
  read_box_body file (mkRS (pos + hdr_len large) orc) (mkHdr name (hdr_len large + plen) (hdr_len large))
  = Ok (sub file (pos + hdr_len large) plen, mkRS (pos + hdr_len large + plen) orc).
Proof.
  intros Hb. unfold read_box_body. cbn [hlen hsize rpos rorc].
  destruct (hdr_len large =? hdr_len large + plen) eqn:E.
  - replace plen with 0 by lia. now rewrite N.add_0_r.
  - replace (hdr_len large + plen - hdr_len large) with plen by lia.
    now rewrite N.min_l, sub_length, N.eqb_refl by lia.
Qed.

Lemma decode_mdat_ok file pos name large plen orc :
  pos + hdr_len large + plen <= lenN file ->
  decode_mdat file (mkHdr name (hdr_len large + plen) (hdr_len large)) pos (mkRS (pos + hdr_len large) orc)
  = Ok (mdat_mem file pos large plen, mkRS (pos + hdr_len large + plen) orc).
Proof.
  intros Hb. unfold decode_mdat. rewrite read_box_body_ok by exact Hb. cbn [rbind hlen]. now rewrite hdr_len_large.
Qed.

Lemma decode_mdat_lazily_eq pos name large plen :
  decode_mdat_lazily (mkHdr name (hdr_len large + plen) (hdr_len large)) pos = mdat_lazy pos large plen.
Proof.
  unfold decode_mdat_lazily. cbn [hlen hsize]. rewrite hdr_len_large. unfold mdat_lazy. f_equal. lia.
Qed.

(* DecodeBoxLazyMdat skips the payload with a relative seek: int64(size) - hdrlen *)
Lemma seek_payload_ok pos large plen orc :
  pos + hdr_len large + plen < 9223372036854775808 ->
  rs_seek_cur (mkRS (pos + hdr_len large) orc) (i64n (hdr_len large + plen) - Z.of_N (hdr_len large))
  = Ok (mkRS (pos + hdr_len large + plen) orc).
Proof.
  intros Hb. unfold rs_seek_cur, i64n. cbn [rpos rorc].
  replace (hdr_len large + plen <? 9223372036854775808) with true by lia.
  set (p := (Z.of_N (pos + hdr_len large) + (Z.of_N (hdr_len large + plen) - Z.of_N (hdr_len large)))%Z).
  replace (p <? 0)%Z with false by lia. replace (9223372036854775807 <? p)%Z with false by lia.
  cbn [orb]. do 2 f_equal. lia.
Qed.

(* both decodings succeed, give the boxes used in C08_read_equal, and leave the reader at the box end *)
Lemma decode_equal file zeof startPos large payloadLen orc :
  box_in_file file startPos large payloadLen = true ->
  header_at file startPos large payloadLen = true ->
  exists o1 o2,
    decode_box_mdat false file zeof startPos (mkRS startPos orc)
    = RfOk (mdat_mem file startPos large payloadLen, mkRS (startPos + hdr_len large + payloadLen) o1)
    /\ decode_box_mdat true file zeof startPos (mkRS startPos orc)
    = RfOk (mdat_lazy startPos large payloadLen, mkRS (startPos + hdr_len large + payloadLen) o2).
Proof.
  unfold box_in_file. rewrite header_at_mdat. intros Hb Hh.
  destruct (decode_header_ok file zeof startPos name_mdat large payloadLen orc) as (o & Hd); [lia|lia|exact Hh|].
  exists o, o. unfold decode_box_mdat. rewrite Hd. split.
  - now rewrite decode_mdat_ok by lia.
  - cbn [hsize hlen]. now rewrite decode_mdat_lazily_eq, seek_payload_ok by lia.
Qed.

(* Size() = header + payload, where the payload length is lazyDataSize or, when that is 0, len(Data); the
   16-byte header is chosen when LargeSize is set or the payload does not fit a 32-bit box size *)
Lemma mdat_size_eq m p :
  (if 0 <? lazyDataSize m then lazyDataSize m else lenN (Data m)) = p -> p < 18446744073709551600 ->
  mdat_size m = let large := LargeSize m || (4294967296 - 1 - 8 <? p) in (hdr_len large + p, large).
Proof.
  intros Hp Hlt. unfold mdat_size, maxNormalPayloadSize. rewrite Hp. cbn zeta.
  destruct (LargeSize m || (4294967296 - 1 - 8 <? p)); cbn [hdr_len]; rewrite u64_small by lia; f_equal; lia.
Qed.

Lemma large_flag_kept large p :
  large = true \/ 8 + p < 4294967296 -> large || (4294967296 - 1 - 8 <? p) = large.
Proof. intros [->|H]; [reflexivity|]. replace (4294967296 - 1 - 8 <? p) with false by lia. apply orb_false_r. Qed.

Lemma mdat_size_lazy pos large plen :
  plen < 9223372036854775808 -> large = true \/ 8 + plen < 4294967296 ->
  mdat_size (mdat_lazy pos large plen) = (hdr_len large + plen, large).
Proof.
  intros Hlt Hsz.
  rewrite (mdat_size_eq _ plen); cbn [mdat_lazy lazyDataSize Data LargeSize]; [|now destruct plen|lia].
  now rewrite large_flag_kept.
Qed.

Lemma mdat_size_mem file pos large plen :
  pos + hdr_len large + plen <= lenN file -> lenN file < 9223372036854775808 ->
  large = true \/ 8 + plen < 4294967296 ->
  mdat_size (mdat_mem file pos large plen) = (hdr_len large + plen, large).
Proof.
  intros Hb Hfl Hsz.
  rewrite (mdat_size_eq _ plen); cbn [mdat_mem lazyDataSize Data LargeSize]; [|apply sub_length; exact Hb|lia].
  now rewrite large_flag_kept.
Qed.

Lemma canonical_header_len large p : lenN (canonical_header large p) = hdr_len large.
Proof. now destruct large. Qed.

(* EncodeHeaderWithSize writes the canonical header *)
Lemma encode_header_canonical large p :
  large = true \/ 8 + p < 4294967296 ->
  encode_header_with_size (hdr_len large + p) large = Ok (canonical_header large p).
Proof.
  intros Hsz. unfold encode_header_with_size, canonical_header.
  destruct large; cbn [negb andb hdr_len]; [reflexivity|].
  replace (4294967296 <=? 8 + p) with false by lia. unfold u32. now rewrite N.mod_small by lia.
Qed.

Lemma mdat_encode_eq m large p :
  mdat_size m = (hdr_len large + p, large) -> large = true \/ 8 + p < 4294967296 ->
  mdat_encode m = Ok (canonical_header large p ++ Data m).
Proof. intros Hs Hsz. unfold mdat_encode. now rewrite Hs, encode_header_canonical. Qed.

(* Encode of the lazily decoded box writes exactly the header bytes of the original box; Size,
   StartPos, HeaderSize agree between the two boxes *)
Lemma header_plus_payload file startPos large payloadLen :
  box_in_file file startPos large payloadLen = true ->
  header_at file startPos large payloadLen = true ->
  mdat_encode (mdat_lazy startPos large payloadLen) = Ok (sub file startPos (hdr_len large))
  /\ sub file startPos (hdr_len large) ++ sub file (startPos + hdr_len large) payloadLen
     = sub file startPos (hdr_len large + payloadLen)
  /\ mdat_encode (mdat_mem file startPos large payloadLen) = Ok (sub file startPos (hdr_len large + payloadLen))
  /\ mdat_size (mdat_lazy startPos large payloadLen) = (hdr_len large + payloadLen, large)
  /\ mdat_size (mdat_mem file startPos large payloadLen) = (hdr_len large + payloadLen, large).
Proof.
  unfold box_in_file. rewrite header_at_mdat. intros Hb Hh.
  apply header_at_n_inv in Hh. destruct Hh as (Hh & Hsz & _).
  assert (S1 := mdat_size_lazy startPos large payloadLen ltac:(lia) Hsz).
  assert (S2 := mdat_size_mem file startPos large payloadLen ltac:(lia) ltac:(lia) Hsz).
  change (canonical_header_n name_mdat large payloadLen) with (canonical_header large payloadLen) in Hh.
  rewrite (mdat_encode_eq _ _ _ S1 Hsz), (mdat_encode_eq _ _ _ S2 Hsz), <- Hh, <- sub_app.
  cbn [mdat_lazy mdat_mem Data]. rewrite app_nil_r. auto.
Qed.
