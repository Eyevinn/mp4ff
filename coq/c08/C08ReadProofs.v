(* C08ReadProofs.v — ReadData / CopyData: both modes return the file slice on every valid range. *)
From V.lib Require Import Base.
From V.c08 Require Import C08Model C08Spec.

Lemma u64_small x : x < 18446744073709551616 -> u64 x = x.
Proof. apply N.mod_small. Qed.

Lemma u64z_small z : (0 <= z < two64)%Z -> u64z z = Z.to_N z.
Proof. intros H. unfold u64z. now rewrite Z.mod_small. Qed.

Lemma u64z_sub a b : b <= a -> a < 18446744073709551616 -> u64z (Z.of_N a - Z.of_N b) = a - b.
Proof. intros H1 H2. rewrite u64z_small by (unfold two64; lia). lia. Qed.

Lemma hdr_len_bound large : 8 <= hdr_len large <= 16.
Proof. destruct large; cbn [hdr_len]; lia. Qed.

(* PayloadAbsoluteOffset() *)
Lemma pao_mk sp d lz large :
  sp + hdr_len large < 18446744073709551616 -> payload_abs_offset (mkMdat sp d lz large) = sp + hdr_len large.
Proof. apply u64_small. Qed.

Lemma skipn_add {A} (a b : nat) (l : list A) : skipn (a + b) l = skipn b (skipn a l).
Proof.
  revert l. induction a as [|a IH]; intros l; [reflexivity|].
  destruct l as [|x t]; cbn [Nat.add skipn]; [now rewrite skipn_nil|apply IH].
Qed.

Lemma firstn_add {A} (a b : nat) (l : list A) :
  firstn (a + b) l = firstn a l ++ firstn b (skipn a l).
Proof.
  revert l. induction a as [|a IH]; intros l; [reflexivity|].
  destruct l as [|x t]; cbn [Nat.add firstn skipn app]; [now rewrite firstn_nil|].
  now rewrite IH.
Qed.

Lemma sub_app {A} (l : list A) a k j : sub l a k ++ sub l (a + k) j = sub l a (k + j).
Proof.
  unfold sub. rewrite !N2Nat.inj_add, skipn_add, firstn_add. reflexivity.
Qed.

(* a slice read in two goes: the first k bytes, then the rest *)
Lemma sub_app_le {A} (l : list A) a k n : k <= n -> sub l a k ++ sub l (a + k) (n - k) = sub l a n.
Proof. intros H. rewrite sub_app. f_equal. lia. Qed.

Lemma sub_length {A} (l : list A) a k : a + k <= lenN l -> lenN (sub l a k) = k.
Proof.
  unfold sub, lenN. intros H. rewrite firstn_length, skipn_length. lia.
Qed.

Lemma sub_length_le {A} (l : list A) a k : lenN (sub l a k) <= k.
Proof. unfold sub, lenN. rewrite firstn_length. lia. Qed.

Lemma sub_0 {A} (l : list A) a : sub l a 0 = [].
Proof. reflexivity. Qed.

Lemma sub_sub {A} (l : list A) a plen off sz :
  off + sz <= plen -> sub (sub l a plen) off sz = sub l (a + off) sz.
Proof.
  intros H. unfold sub.
  rewrite skipn_firstn_comm, firstn_firstn, Nat.min_l by lia.
  now rewrite N2Nat.inj_add, skipn_add.
Qed.

Lemma sub_all_le {A} (l : list A) a k : lenN l <= a -> sub l a k = [].
Proof.
  unfold sub, lenN. intros H. rewrite skipn_all2 by lia. now rewrite firstn_nil.
Qed.

Lemma sub_whole {A} (l : list A) : sub l 0 (lenN l) = l.
Proof. unfold sub, lenN. rewrite Nat2N.id. apply firstn_all. Qed.

Lemma sub_app_l {A} (h p : list A) : sub (h ++ p) 0 (lenN h) = h.
Proof.
  unfold sub, lenN. rewrite Nat2N.id. cbn [N.to_nat skipn].
  rewrite <- (Nat.add_0_r (length h)), firstn_app_2. apply app_nil_r.
Qed.

Lemma sub_app_r {A} (h p : list A) : sub (h ++ p) (lenN h) (lenN p) = p.
Proof.
  unfold sub, lenN. rewrite !Nat2N.id, skipn_app, skipn_all, Nat.sub_diag. apply firstn_all.
Qed.

(* a Read before the end of the file: some k <= want bytes of the file, at least one when any were asked for *)
Lemma rs_read_ok file zeof r want :
  rpos r < lenN file ->
  exists k orc', rs_read file zeof r want = (sub file (rpos r) k, false, mkRS (rpos r + k) orc')
                 /\ k <= want /\ (0 < want -> 1 <= k) /\ rpos r + k <= lenN file.
Proof.
  intros Hp. unfold rs_read.
  replace (lenN file <=? rpos r) with false by lia.
  destruct (want =? 0) eqn:E.
  - exists 0, (rorc r). rewrite N.add_0_r. destruct r, zeof; cbn [andb negb] in *; repeat split; lia.
  - cbn [andb]. destruct (rorc r) as [|o t]; eexists _, _; (split; [reflexivity|lia]).
Qed.

Lemma read_full_loop_ok file zeof : forall fuel r left ny,
  rpos r + left <= lenN file -> (N.to_nat left < fuel)%nat ->
  exists orc', read_full_loop fuel file zeof r left ny
               = RfOk (sub file (rpos r) left, mkRS (rpos r + left) orc').
Proof.
  induction fuel as [|f IH]; intros r left ny Hin Hf; [lia|].
  cbn [read_full_loop].
  destruct (left =? 0) eqn:E.
  - apply N.eqb_eq in E. subst left. exists (rorc r). rewrite N.add_0_r. now destruct r.
  - destruct (rs_read_ok file zeof r left) as (k & orc1 & Hr & Hk1 & Hk2 & Hk3); [lia|].
    rewrite Hr, sub_length by lia.
    destruct (IH (mkRS (rpos r + k) orc1) (left - k) false) as (orc2 & Hrec);
      [cbn [rpos]; lia|lia|].
    rewrite Hrec. cbn [rpos]. exists orc2.
    rewrite sub_app_le by exact Hk1.
    replace (rpos r + k + (left - k)) with (rpos r + left) by lia. reflexivity.
Qed.

Lemma read_full_ok file zeof r size :
  rpos r + size <= lenN file ->
  exists orc', read_full file zeof r size = RfOk (sub file (rpos r) size, mkRS (rpos r + size) orc').
Proof. intros H. unfold read_full. apply read_full_loop_ok; [exact H|lia]. Qed.

Lemma copy_n_loop_ok file zeof : forall fuel r left,
  rpos r + left <= lenN file -> (N.to_nat left < fuel)%nat ->
  exists orc', copy_n_loop fuel file zeof r left
               = Ok (sub file (rpos r) left, mkRS (rpos r + left) orc').
Proof.
  induction fuel as [|f IH]; intros r left Hin Hf; [lia|].
  cbn [copy_n_loop].
  destruct (left =? 0) eqn:E.
  - apply N.eqb_eq in E. subst left. exists (rorc r). rewrite N.add_0_r. now destruct r.
  - destruct (rs_read_ok file zeof r (N.min 32768 left)) as (k & orc1 & Hr & Hk1 & Hk2 & Hk3); [lia|].
    rewrite Hr, sub_length by lia.
    destruct (IH (mkRS (rpos r + k) orc1) (left - k)) as (orc2 & Hrec);
      [cbn [rpos]; lia|lia|].
    rewrite Hrec. cbn [rpos rbind]. exists orc2.
    rewrite sub_app_le by lia.
    replace (rpos r + k + (left - k)) with (rpos r + left) by lia. reflexivity.
Qed.

Lemma copy_n_ok file zeof r (n : Z) :
  (0 <= n)%Z -> rpos r + Z.to_N n <= lenN file ->
  exists orc', copy_n file zeof r n
               = Ok (sub file (rpos r) (Z.to_N n), mkRS (rpos r + Z.to_N n) orc').
Proof.
  intros Hn H. unfold copy_n.
  destruct (n <=? 0)%Z eqn:E.
  - assert (n = 0%Z) by lia. subst n. exists (rorc r). cbn. rewrite N.add_0_r. now destruct r.
  - apply copy_n_loop_ok; [exact H|lia].
Qed.

Lemma mem_slice_ok strict file startPos large payloadLen start size :
  box_in_file file startPos large payloadLen = true ->
  valid_range startPos large payloadLen start size = true ->
  (strict = true \/ (start + size < Z.of_N (startPos + hdr_len large + payloadLen))%Z) ->
  mem_slice strict (mdat_mem file startPos large payloadLen) start size
  = Ok (sub file (Z.to_N start) (Z.to_N size)).
Proof.
  unfold box_in_file, valid_range. intros Hb Hv Hs.
  pose proof (hdr_len_bound large) as Hh.
  unfold mem_slice, mdat_mem. rewrite pao_mk by lia. cbn [Data]. fold (hdr_len large).
  set (ps := startPos + hdr_len large) in *.
  rewrite (u64z_small start), (u64z_small size) by (unfold two64; lia).
  rewrite u64z_sub, u64_small, sub_length by lia.
  set (off := Z.to_N start - ps).
  replace (payloadLen <=? off) with false by lia.
  replace (if strict then payloadLen <? off + Z.to_N size else payloadLen <=? off + Z.to_N size) with false
    by (destruct Hs as [-> | Hs]; [|destruct strict]; lia).
  replace (off + Z.to_N size <? off) with false by lia.
  replace (payloadLen <? off + Z.to_N size) with false by lia.
  cbn [orb]. rewrite sub_sub by lia. subst off. do 2 f_equal; lia.
Qed.

(* the full statement, repaired text *)
Lemma read_equal file startPos large payloadLen start size zeof orc :
  box_in_file file startPos large payloadLen = true ->
  valid_range startPos large payloadLen start size = true ->
  let want := Ok (sub file (Z.to_N start) (Z.to_N size)) in
  read_data true file zeof (mdat_mem file startPos large payloadLen) start size (Some (mkRS 0 orc)) = want
  /\ read_data true file zeof (mdat_lazy startPos large payloadLen) start size (Some (mkRS 0 orc)) = want
  /\ copy_data true file zeof (mdat_mem file startPos large payloadLen) start size (Some (mkRS 0 orc)) = want
  /\ copy_data true file zeof (mdat_lazy startPos large payloadLen) start size (Some (mkRS 0 orc)) = want.
Proof.
  intros Hb Hv want.
  pose proof (mem_slice_ok true file startPos large payloadLen start size Hb Hv (or_introl eq_refl)) as Hm.
  unfold box_in_file, valid_range in Hb, Hv. pose proof (hdr_len_bound large) as Hh.
  assert (Hin : Z.to_N start + Z.to_N size <= lenN file) by lia.
  (* the lazy box: Seek(start), then ReadFull / CopyN of size bytes *)
  assert (Hlazy : 0 <? lazyDataSize (mdat_lazy startPos large payloadLen) = true) by (cbn [mdat_lazy lazyDataSize]; lia).
  assert (Hseek : rs_seek_start (mkRS 0 orc) start = Ok (mkRS (Z.to_N start) orc)).
  { unfold rs_seek_start. replace (start <? 0)%Z with false by lia. reflexivity. }
  repeat split.
  - exact Hm.
  - unfold read_data. rewrite Hlazy, Hseek. cbn [rbind].
    replace (size <? 0)%Z with false by lia.
    destruct (read_full_ok file zeof (mkRS (Z.to_N start) orc) (Z.to_N size) Hin) as (o' & ->). reflexivity.
  - exact Hm.
  - unfold copy_data. rewrite Hlazy, Hseek. cbn [rbind].
    destruct (copy_n_ok file zeof (mkRS (Z.to_N start) orc) size) as (o' & ->); [lia|exact Hin|]. reflexivity.
Qed.

(* the pinned text: refuted at the last byte, holds strictly inside *)
Lemma last_byte_refuted :
  exists file startPos large payloadLen start size,
    box_in_file file startPos large payloadLen = true /\
    valid_range startPos large payloadLen start size = true /\
    read_data false file false (mdat_mem file startPos large payloadLen) start size None = Err /\
    copy_data false file false (mdat_mem file startPos large payloadLen) start size None = Err /\
    read_data false file false (mdat_lazy startPos large payloadLen) start size (Some (mkRS 0 []))
    = Ok (sub file (Z.to_N start) (Z.to_N size)).
Proof.
  exists [0;0;0;12;109;100;97;116;1;2;3;4], 0, false, 4, 10%Z, 2%Z.
  vm_compute. repeat split; reflexivity.
Qed.

Lemma read_equal_pinned_interior file startPos large payloadLen start size zeof orc :
  box_in_file file startPos large payloadLen = true ->
  valid_range startPos large payloadLen start size = true ->
  (start + size < Z.of_N (startPos + hdr_len large + payloadLen))%Z ->
  read_data false file zeof (mdat_mem file startPos large payloadLen) start size (Some (mkRS 0 orc))
  = Ok (sub file (Z.to_N start) (Z.to_N size))
  /\ copy_data false file zeof (mdat_mem file startPos large payloadLen) start size (Some (mkRS 0 orc))
  = Ok (sub file (Z.to_N start) (Z.to_N size)).
Proof.
  intros Hb Hv Hlt.
  split; exact (mem_slice_ok false file startPos large payloadLen start size Hb Hv (or_intror Hlt)).
Qed.
