(* C08CopyProofs.v — File.CopySampleData: in both modes the bytes written are the concatenation of
   the bytes of samples a..b (loop invariant: written ++ workSpace[0..workPos) = prefix). *)
From V.lib Require Import Base.
From V.c08 Require Import C08Model C08Spec C08ReadProofs.

Lemma seqN_app from j k : seqN from (j + k) = seqN from j ++ seqN (from + N.of_nat j) k.
Proof.
  revert from. induction j as [|j IH]; intros from.
  - cbn [Nat.add seqN app]. now rewrite N.add_0_r.
  - cbn [Nat.add seqN app]. rewrite IH.
    replace (from + 1 + N.of_nat j) with (from + N.of_nat (S j)) by lia. reflexivity.
Qed.

(* a run of n numbers from f, cut before s and before e1 *)
Lemma seqN_split3 f n s e1 : f <= s -> s <= e1 -> e1 <= f + n ->
  seqN f (N.to_nat n)
  = seqN f (N.to_nat (s - f)) ++ seqN s (N.to_nat (e1 - s)) ++ seqN e1 (N.to_nat (f + n - e1)).
Proof.
  intros H1 H2 H3.
  replace (N.to_nat n) with (N.to_nat (s - f) + (N.to_nat (e1 - s) + N.to_nat (f + n - e1)))%nat by lia.
  rewrite !seqN_app. repeat f_equal; lia.
Qed.

Lemma sizes_split3 tb f n s e1 : f <= s -> s <= e1 -> e1 <= f + n ->
  sumN (sizes_from tb f (N.to_nat n))
  = sumN (sizes_from tb f (N.to_nat (s - f))) + sumN (sizes_from tb s (N.to_nat (e1 - s)))
    + sumN (sizes_from tb e1 (N.to_nat (f + n - e1))).
Proof.
  intros H1 H2 H3. unfold sizes_from. rewrite (seqN_split3 f n s e1) by assumption.
  rewrite !map_app, !sumN_app. lia.
Qed.

Lemma get_sample_size_ok tb i : 1 <= i -> get_sample_size tb i = Ok (size_of tb i).
Proof.
  intros H. unfold get_sample_size, size_of.
  destruct (lenN (sample_sizes tb) <? i); [reflexivity|].
  replace (i =? 0) with false by lia. reflexivity.
Qed.

Lemma sum_sizes_ok tb : forall count from,
  1 <= from -> sum_sizes tb from count = Ok (sumN (sizes_from tb from count)).
Proof.
  induction count as [|c IH]; intros from H; [reflexivity|].
  cbn [sum_sizes]. rewrite get_sample_size_ok by exact H. cbn [rbind].
  rewrite IH by lia. reflexivity.
Qed.

(* s0 / e: first and last sample copied from chunk c *)
Definition seg_first (c : chunk) (first : bool) (a : N) : N := if first then a else cstart c.
Definition seg_last (c : chunk) (last : bool) (b : N) : N := if last then b else cstart c + cn c - 1.

Lemma chunk_seg_ok tb c first last a b pstart pend :
  chunk_in_payload tb pstart pend c = true ->
  pend < 9223372036854775808 ->
  1 <= cstart c ->
  cstart c <= seg_first c first a ->
  seg_first c first a <= seg_last c last b + 1 ->
  seg_last c last b + 1 <= cstart c + cn c ->
  (last = false -> cstart c + cn c <= 4294967296) ->
  chunk_seg tb c first last a b
  = Ok (chunk_offset_of tb c + sumN (sizes_from tb (cstart c) (N.to_nat (seg_first c first a - cstart c))),
        sumN (sizes_from tb (seg_first c first a) (N.to_nat (seg_last c last b + 1 - seg_first c first a)))).
Proof.
  unfold chunk_in_payload. intros Hp Hpend Hf H1 H2 H3 H4.
  unfold chunk_seg, get_chunk_offset. fold (chunk_offset_of tb c).
  replace ((cnr c =? 0) || (lenN (chunk_offsets tb) <? cnr c)) with false by lia.
  set (off := chunk_offset_of tb c) in *.
  set (f := cstart c) in *. set (n := cn c) in *.
  assert (Htot : off + sumN (sizes_from tb f (N.to_nat n)) <= pend) by lia.
  assert (Hu32 : last = false -> u32 (f + n + 4294967295) = f + n - 1).
  { intros ->. specialize (H4 eq_refl). unfold seg_last in H2, H3. fold f n in H2, H3. unfold u32.
    replace (f + n + 4294967295) with (f + n - 1 + 1 * 4294967296) by lia.
    rewrite N.mod_add by lia. apply N.mod_small. lia. }
  destruct first; cbn [seg_first] in *.
  - rewrite sum_sizes_ok by exact Hf. cbn [rbind].
    (* the skipped prefix is part of the chunk, so offset + skip does not wrap *)
    assert (Ha : f <= a <= f + n) by (unfold seg_last in *; destruct last; lia).
    rewrite (sizes_split3 tb f n a a) in Htot by lia. rewrite u64_small by lia.
    rewrite sum_sizes_ok by lia. cbn [rbind].
    destruct last; cbn [seg_last] in *; [reflexivity|].
    rewrite Hu32 by reflexivity. fold f n. reflexivity.
  - cbn [rbind]. rewrite sum_sizes_ok by exact Hf. cbn [rbind].
    rewrite N.sub_diag. cbn [N.to_nat sizes_from seqN map sumN]. rewrite N.add_0_r.
    destruct last; cbn [seg_last] in *; [reflexivity|].
    rewrite Hu32 by reflexivity. fold f n. reflexivity.
Qed.

Lemma in_seqN k from count : In k (seqN from count) -> from <= k < from + N.of_nat count.
Proof.
  revert from. induction count as [|c IH]; intros from H; [destruct H|].
  cbn [seqN] in H. destruct H as [<- | H]; [lia|]. apply IH in H. lia.
Qed.

(* a selection that is constant on l takes all of l or nothing *)
Lemma concat_map_cond {A B} (c : A -> bool) (h : A -> list B) (v : bool) (l : list A) :
  (forall x, In x l -> c x = v) ->
  concat (map (fun x => if c x then h x else []) l) = if v then concat (map h l) else [].
Proof.
  induction l as [|x t IH]; intros H; [now destruct v|].
  cbn [map concat]. rewrite (H x) by now left. rewrite IH by (intros y Hy; apply H; now right). now destruct v.
Qed.

(* consecutive samples of a chunk are adjacent in the file *)
Lemma chunk_mid file tb c : forall m k0,
  cstart c <= k0 ->
  concat (map (sample_bytes file tb c) (seqN k0 m))
  = sub file (sample_offset tb c k0) (sumN (sizes_from tb k0 m)).
Proof.
  induction m as [|m IH]; intros k0 Hk; [reflexivity|].
  cbn [seqN map concat sizes_from sumN]. rewrite IH by lia.
  unfold sample_bytes at 1.
  replace (sample_offset tb c (k0 + 1)) with (sample_offset tb c k0 + size_of tb k0).
  - fold (sizes_from tb (k0 + 1) m). apply sub_app.
  - unfold sample_offset.
    replace (N.to_nat (k0 + 1 - cstart c)) with (N.to_nat (k0 - cstart c) + 1)%nat by lia.
    unfold sizes_from. rewrite seqN_app, map_app, sumN_app. cbn [seqN map sumN].
    replace (cstart c + N.of_nat (N.to_nat (k0 - cstart c))) with k0 by lia. lia.
Qed.

Lemma chunk_expected_eq file tb a b c s0 e :
  cstart c <= s0 -> s0 <= e + 1 -> e + 1 <= cstart c + cn c ->
  (forall k, cstart c <= k < cstart c + cn c -> (a <=? k) && (k <=? b) = (s0 <=? k) && (k <=? e)) ->
  chunk_expected file tb a b c
  = sub file (sample_offset tb c s0) (sumN (sizes_from tb s0 (N.to_nat (e + 1 - s0)))).
Proof.
  intros H1 H2 H3 Hin. unfold chunk_expected.
  rewrite (seqN_split3 (cstart c) (cn c) s0 (e + 1)), !map_app, !concat_app by assumption.
  rewrite (concat_map_cond _ _ false), (concat_map_cond _ _ true), (concat_map_cond _ _ false).
  - rewrite app_nil_r. now apply chunk_mid.
  - intros k Hk. apply in_seqN in Hk. rewrite Hin; lia.
  - intros k Hk. apply in_seqN in Hk. rewrite Hin; lia.
  - intros k Hk. apply in_seqN in Hk. rewrite Hin; lia.
Qed.

Lemma buf_write_length buf pos d :
  (N.to_nat pos + length d <= length buf)%nat -> length (buf_write buf pos d) = length buf.
Proof.
  intros H. unfold buf_write. rewrite !app_length, firstn_length, skipn_length. lia.
Qed.

Lemma buf_write_firstn buf pos d :
  (N.to_nat pos <= length buf)%nat ->
  firstn (N.to_nat pos + length d) (buf_write buf pos d) = firstn (N.to_nat pos) buf ++ d.
Proof.
  intros H. unfold buf_write. rewrite app_assoc.
  rewrite firstn_app.
  replace (N.to_nat pos + length d - length (firstn (N.to_nat pos) buf ++ d))%nat with 0%nat
    by (rewrite app_length, firstn_length; lia).
  cbn [firstn]. rewrite app_nil_r. apply firstn_all2.
  rewrite app_length, firstn_length. lia.
Qed.

Lemma buf_write_nil buf pos : buf_write buf pos [] = buf.
Proof. unfold buf_write. cbn [app length]. rewrite Nat.add_0_r. apply firstn_skipn. Qed.

(* what has logically been written: w's content plus the pending part of the work buffer *)
Definition flushed (st : mstate) : list N := ms_out st ++ firstn (N.to_nat (ms_pos st)) (ms_buf st).

Definition inv (workLen : N) (st : mstate) : Prop :=
  ms_pos st <= workLen /\ lenN (ms_buf st) = workLen.

Lemma work_loop_ok file zeof workLen : 0 < workLen -> forall fuel st nrLeft,
  inv workLen st ->
  rpos (ms_rs st) + nrLeft <= lenN file ->
  (2 * N.to_nat nrLeft + (if (ms_pos st =? workLen)%N then 1 else 0) < fuel)%nat ->
  exists st', work_loop true fuel file zeof workLen st nrLeft = Ok st'
              /\ inv workLen st'
              /\ flushed st' = flushed st ++ sub file (rpos (ms_rs st)) nrLeft.
Proof.
  intros Hw. induction fuel as [|f IH]; intros st nrLeft [Hpos Hlen] Hin Hf; [lia|].
  cbn [work_loop andb].
  destruct (nrLeft =? 0) eqn:E0.
  { apply N.eqb_eq in E0. subst nrLeft. exists st. rewrite sub_0, app_nil_r. now repeat split. }
  destruct st as [r buf pos out]. cbn [ms_rs ms_buf ms_pos ms_out] in *.
  set (endp := N.min workLen (pos + nrLeft)).
  replace (endp <? pos) with false by lia.
  (* one Read of k <= endp - pos bytes; k = 0 exactly when the buffer is full (pos = workLen): the pending
     buffer is then flushed and the loop goes on with the same nrLeft, which is why the fuel counts that case *)
  destruct (rs_read_ok file zeof r (endp - pos)) as (k & orc1 & Hr & Hk1 & Hk2 & Hk3); [lia|].
  rewrite Hr, sub_length by lia.
  set (d := sub file (rpos r) k). set (buf' := buf_write buf pos d).
  assert (Hd : length d = N.to_nat k).
  { assert (L := sub_length file (rpos r) k Hk3). unfold lenN in L. fold d in L. lia. }
  assert (Hlen' : lenN buf' = workLen).
  { unfold lenN in *. unfold buf'. rewrite buf_write_length; lia. }
  assert (Hfl : firstn (N.to_nat (pos + k)) buf' = firstn (N.to_nat pos) buf ++ d).
  { replace (N.to_nat (pos + k)) with (N.to_nat pos + length d)%nat by lia.
    apply buf_write_firstn. unfold lenN in Hlen. lia. }
  assert (Hrest : d ++ sub file (rpos r + k) (nrLeft - k) = sub file (rpos r) nrLeft) by (apply sub_app_le; lia).
  destruct (nrLeft - k =? 0) eqn:E1.
  - (* the range is complete: the bytes stay in the buffer *)
    eexists. split; [reflexivity|]. split; [split; cbn [ms_pos ms_buf]; [lia|exact Hlen']|].
    unfold flushed. cbn [ms_out ms_pos ms_buf ms_rs]. rewrite Hfl, <- app_assoc, <- Hrest.
    replace (nrLeft - k) with 0 by lia. now rewrite sub_0, app_nil_r.
  - destruct (pos + k =? workLen) eqn:E2.
    + (* the buffer is full: w.Write(workSpace), workPos = 0 *)
      destruct (IH (mkMS (mkRS (rpos r + k) orc1) buf' 0 (out ++ buf')) (nrLeft - k)) as (st' & H1 & H2 & H3).
      * split; cbn [ms_pos ms_buf]; [lia|exact Hlen'].
      * cbn [ms_rs rpos]. lia.
      * cbn [ms_pos]. replace (0 =? workLen) with false by lia. destruct (pos =? workLen) eqn:E3; lia.
      * exists st'. split; [exact H1|]. split; [exact H2|].
        rewrite H3. unfold flushed. cbn [ms_out ms_pos ms_buf ms_rs rpos N.to_nat firstn].
        rewrite app_nil_r, <- Hrest, <- !app_assoc, (app_assoc _ d), <- Hfl. do 2 f_equal.
        symmetry. apply firstn_all2. unfold lenN in Hlen'. lia.
    + destruct (IH (mkMS (mkRS (rpos r + k) orc1) buf' (pos + k) out) (nrLeft - k)) as (st' & H1 & H2 & H3).
      * split; cbn [ms_pos ms_buf]; [lia|exact Hlen'].
      * cbn [ms_rs rpos]. lia.
      * cbn [ms_pos]. rewrite E2. destruct (pos =? workLen) eqn:E3; lia.
      * exists st'. split; [exact H1|]. split; [exact H2|].
        rewrite H3. unfold flushed. cbn [ms_out ms_pos ms_buf ms_rs rpos].
        now rewrite Hfl, <- Hrest, <- !app_assoc.
Qed.

Lemma move_seg_lazy_ok file zeof startPos large payloadLen workLen st off size :
  0 < payloadLen -> lenN file < 9223372036854775808 ->
  inv workLen st -> off + size <= lenN file ->
  exists st', move_seg true file zeof (mdat_lazy startPos large payloadLen) workLen (off, size) st = Ok st'
              /\ inv workLen st' /\ flushed st' = flushed st ++ sub file off size.
Proof.
  intros Hpl Hfl [Hpos Hlen] Hin. unfold move_seg, is_lazy, mdat_lazy. cbn [lazyDataSize].
  replace (0 <? payloadLen) with true by lia.
  unfold i64n. replace (off <? 9223372036854775808) with true by lia.
  unfold rs_seek_start. replace (Z.of_N off <? 0)%Z with false by lia. cbn [rbind].
  rewrite N2Z.id.
  destruct (workLen =? 0) eqn:E.
  - apply N.eqb_eq in E.
    destruct (copy_n_ok file zeof (mkRS off (rorc (ms_rs st))) (Z.of_N size)) as (o' & Hc);
      [lia|cbn [rpos]; lia|].
    rewrite Hc. cbn [rbind]. rewrite N2Z.id. cbn [rpos].
    eexists. split; [reflexivity|]. split; [split; cbn [ms_pos ms_buf]; assumption|].
    unfold flushed. cbn [ms_out ms_pos ms_buf].
    replace (ms_pos st) with 0 by lia. cbn [N.to_nat firstn]. now rewrite !app_nil_r.
  - apply N.eqb_neq in E.
    destruct (work_loop_ok file zeof workLen ltac:(lia) (S (S (2 * N.to_nat size)))
                (mkMS (mkRS off (rorc (ms_rs st))) (ms_buf st) (ms_pos st) (ms_out st)) size)
      as (st' & H1 & H2 & H3).
    + split; cbn [ms_pos ms_buf]; assumption.
    + cbn [ms_rs rpos]. exact Hin.
    + cbn [ms_pos]. destruct (ms_pos st =? workLen); lia.
    + exists st'. split; [exact H1|]. split; [exact H2|]. rewrite H3. reflexivity.
Qed.

Lemma move_seg_mem_ok file zeof startPos large payloadLen workLen st off size :
  box_in_file file startPos large payloadLen = true ->
  ms_pos st = 0 ->
  startPos + hdr_len large <= off -> off + size <= startPos + hdr_len large + payloadLen ->
  exists st', move_seg true file zeof (mdat_mem file startPos large payloadLen) workLen (off, size) st = Ok st'
              /\ ms_pos st' = 0 /\ flushed st' = flushed st ++ sub file off size.
Proof.
  unfold box_in_file. intros Hb Hp H1 H2. pose proof (hdr_len_bound large) as Hh.
  unfold move_seg, is_lazy, mdat_mem. rewrite pao_mk by lia. cbn [lazyDataSize Data]. fold (hdr_len large).
  change (0 <? 0) with false. cbn match.
  set (ps := startPos + hdr_len large) in *.
  rewrite u64z_sub, u64_small, sub_length by lia.
  replace ((off - ps + size <? off - ps) || (payloadLen <? off - ps + size)) with false by lia.
  eexists. split; [reflexivity|]. split; [exact Hp|].
  unfold flushed. cbn [ms_out ms_pos ms_buf]. rewrite Hp. cbn [N.to_nat firstn]. rewrite !app_nil_r.
  f_equal. rewrite sub_sub by lia. f_equal; lia.
Qed.

Lemma run_ok_start b : forall chunks c rest, chunks = c :: rest -> run_ok b chunks = true -> cstart c <= b.
Proof.
  induction chunks as [|c0 t IH]; intros c rest E H; [discriminate|].
  injection E as -> ->. cbn [run_ok] in H. destruct rest as [|c' rest'].
  - lia.
  - apply andb_true_iff in H. destruct H as [H1 H2].
    specialize (IH c' rest' eq_refl H2). lia.
Qed.

Lemma chunks_cover_inv a b c rest : chunks_cover a b (c :: rest) = true ->
  1 <= cstart c /\ cstart c <= a /\ a < cstart c + cn c /\ a <= b /\ b < 4294967295 /\ run_ok b (c :: rest) = true.
Proof.
  unfold chunks_cover. intros H. repeat (apply andb_true_iff in H; destruct H as [H ?]).
  repeat split; try lia; assumption.
Qed.

Section ChunkLoop.
  Variables (file : list N) (zeof : bool) (m : mdat) (tb : stbl) (ws : list N) (a b ps pe : N).
  Variable P : mstate -> Prop.
  Hypothesis Hpe : pe < 9223372036854775808.
  Hypothesis Hab : a <= b.
  Hypothesis Hb32 : b < 4294967295.
  Hypothesis move_ok : forall st off size, P st -> ps <= off -> off + size <= pe ->
    exists st', move_seg true file zeof m (lenN ws) (off, size) st = Ok st'
                /\ P st' /\ flushed st' = flushed st ++ sub file off size.

  Lemma chunks_loop_ok : forall (chunks : list chunk) (first : bool) (st : mstate),
    P st ->
    run_ok b chunks = true ->
    forallb (chunk_in_payload tb ps pe) chunks = true ->
    match chunks with
    | c :: _ => 1 <= cstart c /\ (if first then cstart c <= a /\ a < cstart c + cn c else a <= cstart c)
    | [] => True
    end ->
    exists st', chunks_loop true file zeof m tb (lenN ws) a b chunks first st = Ok st'
                /\ P st' /\ flushed st' = flushed st ++ expected_samples file tb chunks a b.
  Proof.
    induction chunks as [|c rest IH]; intros first st HP Hrun Hpay Hfirst; [discriminate|].
    cbn [forallb] in Hpay. apply andb_true_iff in Hpay. destruct Hpay as [Hpc Hprest].
    destruct Hfirst as [Hf1 Hfa].
    set (last := match rest with [] => true | _ :: _ => false end).
    assert (Hlast : if last then cstart c <= b /\ b < cstart c + cn c
                    else cstart c + cn c <= b /\ exists c' r', rest = c' :: r' /\ cstart c' = cstart c + cn c
                                                               /\ run_ok b rest = true).
    { cbn [run_ok] in Hrun. unfold last. destruct rest as [|c' r'].
      - lia.
      - apply andb_true_iff in Hrun. destruct Hrun as [E Hr]. apply N.eqb_eq in E.
        pose proof (run_ok_start b (c' :: r') c' r' eq_refl Hr). split; [lia|].
        exists c', r'. repeat split; assumption. }
    assert (A1 : cstart c <= seg_first c first a) by (unfold seg_first; destruct first; lia).
    assert (A2 : seg_first c first a <= seg_last c last b + 1).
    { unfold seg_first, seg_last. destruct first, last; lia. }
    assert (A3 : seg_last c last b + 1 <= cstart c + cn c).
    { unfold seg_last. destruct last; lia. }
    assert (A4 : last = false -> cstart c + cn c <= 4294967296).
    { intros E. rewrite E in Hlast. lia. }
    cbn [chunks_loop]. fold last.
    rewrite (chunk_seg_ok tb c first last a b ps pe Hpc Hpe Hf1 A1 A2 A3 A4). cbn [rbind].
    (* the segment lies inside the payload *)
    set (s0 := seg_first c first a) in *. set (e := seg_last c last b) in *.
    assert (Hsplit := sizes_split3 tb (cstart c) (cn c) s0 (e + 1) A1 A2 A3).
    unfold chunk_in_payload in Hpc.
    destruct (move_ok st (chunk_offset_of tb c + sumN (sizes_from tb (cstart c) (N.to_nat (s0 - cstart c))))
                      (sumN (sizes_from tb s0 (N.to_nat (e + 1 - s0)))) HP) as (st1 & M1 & M2 & M3); [lia|lia|].
    rewrite M1. cbn [rbind].
    assert (Hexp : chunk_expected file tb a b c
                   = sub file (chunk_offset_of tb c + sumN (sizes_from tb (cstart c) (N.to_nat (s0 - cstart c))))
                         (sumN (sizes_from tb s0 (N.to_nat (e + 1 - s0))))).
    { rewrite (chunk_expected_eq file tb a b c s0 e A1 A2 A3); [reflexivity|].
      intros k Hk. unfold s0, e, seg_first, seg_last. destruct first, last; lia. }
    unfold expected_samples. cbn [map concat]. rewrite Hexp.
    destruct rest as [|c' r'].
    - cbn [chunks_loop map concat]. exists st1. split; [reflexivity|]. split; [exact M2|].
      rewrite M3, app_nil_r. reflexivity.
    - unfold last in Hlast. destruct Hlast as [Hle (c2 & r2 & E & Hc2 & Hr2)].
      injection E as <- <-.
      destruct (IH false st1 M2 Hr2 Hprest) as (st2 & L1 & L2 & L3).
      { split; [lia|]. destruct first; lia. }
      exists st2. split; [exact L1|]. split; [exact L2|].
      rewrite L3, M3. unfold expected_samples. now rewrite <- app_assoc.
  Qed.

  (* after the loop the pending part of the work buffer is written out *)
  Lemma copy_sample_data_ok chunks r :
    P (mkMS r ws 0 []) -> chunks_cover a b chunks = true ->
    forallb (chunk_in_payload tb ps pe) chunks = true ->
    copy_sample_data true file zeof m (Some r) tb chunks a b ws = Ok (expected_samples file tb chunks a b).
  Proof.
    intros HP Hc Hp. destruct chunks as [|c rest]; [discriminate|].
    destruct (chunks_cover_inv a b c rest Hc) as (C1 & C2 & C3 & _ & _ & C6).
    destruct (chunks_loop_ok (c :: rest) true _ HP C6 Hp) as (st' & L1 & L2 & L3); [now repeat split|].
    unfold copy_sample_data. replace (if is_lazy m then Some r else Some r) with (Some r) by now destruct (is_lazy m).
    change (flushed (mkMS r ws 0 [])) with (@nil N) in L3. cbn [app] in L3.
    rewrite L1. cbn [rbind]. rewrite <- L3. unfold flushed.
    destruct (0 <? ms_pos st') eqn:E; [reflexivity|]. replace (ms_pos st') with 0 by lia. now rewrite app_nil_r.
  Qed.
End ChunkLoop.

Lemma copy_samples file startPos large payloadLen tb chunks a b ws zeof orc :
  box_in_file file startPos large payloadLen = true ->
  chunks_cover a b chunks = true ->
  chunks_in_payload tb startPos large payloadLen chunks = true ->
  copy_sample_data true file zeof (mdat_mem file startPos large payloadLen) (Some (mkRS 0 orc)) tb chunks a b ws
  = Ok (expected_samples file tb chunks a b)
  /\ copy_sample_data true file zeof (mdat_lazy startPos large payloadLen) (Some (mkRS 0 orc)) tb chunks a b ws
  = Ok (expected_samples file tb chunks a b).
Proof.
  intros Hb Hc Hp. unfold chunks_in_payload in Hp.
  assert (Hb' := Hb). unfold box_in_file in Hb'.
  destruct chunks as [|c rest]; [discriminate|].
  destruct (chunks_cover_inv a b c rest Hc) as (_ & _ & _ & C4 & C5 & _).
  set (ps := startPos + hdr_len large) in *.
  assert (Hpe : ps + payloadLen < 9223372036854775808) by lia.
  assert (Hmem : copy_sample_data true file zeof (mdat_mem file startPos large payloadLen)
                   (Some (mkRS 0 orc)) tb (c :: rest) a b ws = Ok (expected_samples file tb (c :: rest) a b)).
  { apply (copy_sample_data_ok file zeof _ tb ws a b ps (ps + payloadLen) (fun st => ms_pos st = 0));
      try assumption; [|reflexivity].
    intros st off size. now apply move_seg_mem_ok. }
  split; [exact Hmem|].
  destruct (N.eq_dec payloadLen 0) as [E0 | Hpl].
  - (* an mdat without payload is never lazy: the lazily decoded box is the in-memory box *)
    replace (mdat_lazy startPos large payloadLen) with (mdat_mem file startPos large payloadLen);
      [exact Hmem|].
    unfold mdat_mem, mdat_lazy. subst payloadLen. reflexivity.
  - apply (copy_sample_data_ok file zeof _ tb ws a b ps (ps + payloadLen) (inv (lenN ws))); try assumption.
    + intros st off size HP H1 H2. apply move_seg_lazy_ok; [lia|lia|exact HP|lia].
    + split; cbn [ms_pos ms_buf]; [lia|reflexivity].
Qed.

(* the pinned refill loop (`for {`) reads once even when nothing is left *)
Lemma zero_size_at_eof_refuted :
  exists file startPos large payloadLen tb chunks a b ws orc,
    box_in_file file startPos large payloadLen = true /\
    chunks_cover a b chunks = true /\
    chunks_in_payload tb startPos large payloadLen chunks = true /\
    copy_sample_data false file true (mdat_lazy startPos large payloadLen) (Some (mkRS 0 orc)) tb chunks a b ws = Err /\
    copy_sample_data false file true (mdat_mem file startPos large payloadLen) (Some (mkRS 0 orc)) tb chunks a b ws
    = Ok (expected_samples file tb chunks a b).
Proof.
  exists [0;0;0;9;109;100;97;116;7], 0, false, 1, (mkStbl [1;0] 0 [8;9]), [mkChunk 2 2 1], 2, 2, [0], [].
  vm_compute. repeat split; reflexivity.
Qed.
