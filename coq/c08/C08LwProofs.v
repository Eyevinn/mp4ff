(* C08LwProofs.v — the lazy writer end to end: the payload size Fragment.AddSampleToTrack accumulates for samples
   a..b (lazyDataSize += uint64(s.Size) per sample) is exactly the number of bytes File.CopySampleData writes
   for a..b, so header (Encode of the prepared mdat) ++ copied bytes is a well-formed mdat box. *)
From V.lib Require Import Base.
From V.c08 Require Import C08Model C08Spec C08EncModel C08ReadProofs C08CopyProofs C08EncProofs C08SwModel.

Lemma lenN_concat_map {A} (g : A -> list N) (h : A -> N) (l : list A) :
  (forall x, In x l -> lenN (g x) = h x) -> lenN (concat (map g l)) = sumN (map h l).
Proof.
  induction l as [|x t IH]; intros H; [reflexivity|].
  cbn [map concat sumN]. rewrite lenN_app, H by (left; reflexivity). rewrite IH; [reflexivity|].
  intros y Hy. apply H. right. exact Hy.
Qed.

Lemma sumN_map_zero {A} (h : A -> N) (l : list A) : (forall x, In x l -> h x = 0) -> sumN (map h l) = 0.
Proof.
  induction l as [|x t IH]; intros H; [reflexivity|].
  cbn [map sumN]. rewrite H by (left; reflexivity). rewrite IH; [reflexivity|].
  intros y Hy. apply H. right. exact Hy.
Qed.

Lemma sumN_map_ext_in {A} (g h : A -> N) (l : list A) : (forall x, In x l -> g x = h x) -> sumN (map g l) = sumN (map h l).
Proof. intros H. f_equal. apply map_ext_in. exact H. Qed.

(* the weight of sample k in the interval a..b *)
Definition wgt (tb : stbl) (a b k : N) : N := if (a <=? k) && (k <=? b) then size_of tb k else 0.
Definition W (tb : stbl) (a b from : N) (count : nat) : N := sumN (map (wgt tb a b) (seqN from count)).

Lemma W_app tb a b from j k : W tb a b from (j + k) = W tb a b from j + W tb a b (from + N.of_nat j) k.
Proof. unfold W. now rewrite seqN_app, map_app, sumN_app. Qed.

Lemma W_after tb a b from count : b < from -> W tb a b from count = 0.
Proof.
  intros H. unfold W. apply sumN_map_zero. intros k Hk. apply in_seqN in Hk. unfold wgt.
  now replace ((a <=? k) && (k <=? b)) with false by lia.
Qed.

Lemma W_before tb a b from count : from + N.of_nat count <= a -> W tb a b from count = 0.
Proof.
  intros H. unfold W. apply sumN_map_zero. intros k Hk. apply in_seqN in Hk. unfold wgt.
  now replace ((a <=? k) && (k <=? b)) with false by lia.
Qed.

Lemma W_inside tb a b from count : a <= from -> from + N.of_nat count <= b + 1 ->
  W tb a b from count = sumN (sizes_from tb from count).
Proof.
  intros H1 H2. unfold W, sizes_from. apply sumN_map_ext_in. intros k Hk. apply in_seqN in Hk. unfold wgt.
  now replace ((a <=? k) && (k <=? b)) with true by lia.
Qed.

(* one chunk lying in the file: the bytes taken from it for a..b are as many as the sizes of its samples in a..b *)
Lemma chunk_expected_len file tb a b c pstart pend :
  chunk_in_payload tb pstart pend c = true -> pend <= lenN file ->
  lenN (chunk_expected file tb a b c) = W tb a b (cstart c) (N.to_nat (cn c)).
Proof.
  intros Hc Hpe. unfold chunk_in_payload in Hc.
  apply andb_true_iff in Hc. destruct Hc as [Hc H4]. apply N.leb_le in H4.
  unfold chunk_expected, W. apply lenN_concat_map. intros k Hk. apply in_seqN in Hk. unfold wgt.
  destruct ((a <=? k) && (k <=? b)); [|reflexivity].
  unfold sample_bytes. apply sub_length. unfold sample_offset.
  (* offset of k + size of k <= offset of the chunk + all sizes of the chunk *)
  rewrite (sizes_split3 tb (cstart c) (cn c) k (k + 1)) in H4 by lia.
  replace (N.to_nat (k + 1 - k)) with 1%nat in H4 by lia. cbn [sizes_from seqN map sumN] in H4. lia.
Qed.

(* a run of consecutive chunks whose last chunk contains b: the weights of all their samples are the weights of
   the samples from the first chunk's first sample up to b *)
Lemma run_W tb a b : forall chunks c rest, chunks = c :: rest -> run_ok b chunks = true ->
  sumN (map (fun c => W tb a b (cstart c) (N.to_nat (cn c))) chunks) = W tb a b (cstart c) (N.to_nat (b + 1 - cstart c)).
Proof.
  induction chunks as [|c0 t IH]; intros c rest E H; [discriminate|].
  injection E as -> ->. cbn [map sumN]. cbn [run_ok] in H. destruct rest as [|c' rest'].
  - cbn [map sumN]. apply andb_true_iff in H. destruct H as [H1 H2].
    replace (N.to_nat (cn c)) with (N.to_nat (b + 1 - cstart c) + N.to_nat (cstart c + cn c - (b + 1)))%nat by lia.
    rewrite W_app. rewrite (W_after tb a b (cstart c + _)) by lia. lia.
  - apply andb_true_iff in H. destruct H as [H1 H2]. apply N.eqb_eq in H1.
    assert (Hs := run_ok_start b _ c' rest' eq_refl H2).
    rewrite (IH c' rest' eq_refl H2).
    replace (N.to_nat (b + 1 - cstart c)) with (N.to_nat (cn c) + N.to_nat (b + 1 - cstart c'))%nat by lia.
    rewrite W_app. replace (cstart c + N.of_nat (N.to_nat (cn c))) with (cstart c') by lia. reflexivity.
Qed.

(* number of bytes of samples a..b = sum of their sizes *)
Lemma expected_samples_len file startPos large payloadLen tb chunks a b :
  box_in_file file startPos large payloadLen = true ->
  chunks_cover a b chunks = true ->
  chunks_in_payload tb startPos large payloadLen chunks = true ->
  lenN (expected_samples file tb chunks a b) = sumN (sizes_from tb a (N.to_nat (b + 1 - a))).
Proof.
  intros Hb Hc Hp. unfold expected_samples.
  rewrite (lenN_concat_map _ (fun c => W tb a b (cstart c) (N.to_nat (cn c)))).
  2:{ intros c Hin. unfold chunks_in_payload in Hp. rewrite forallb_forall in Hp.
      apply (chunk_expected_len file tb a b c _ _ (Hp c Hin)). unfold box_in_file in Hb. lia. }
  destruct chunks as [|c rest]; [discriminate|].
  destruct (chunks_cover_inv a b c rest Hc) as (_ & Ha1 & Ha2 & Hab & _ & Hrun).
  rewrite (run_W tb a b _ c rest eq_refl Hrun).
  replace (N.to_nat (b + 1 - cstart c)) with (N.to_nat (a - cstart c) + N.to_nat (b + 1 - a))%nat by lia.
  rewrite W_app. rewrite W_before by lia.
  replace (cstart c + N.of_nat (N.to_nat (a - cstart c))) with a by lia.
  rewrite W_inside by lia. lia.
Qed.

(* Fragment.AddSampleToTrack, sample after sample: f.Mdat.lazyDataSize += uint64(s.Size) (uint64 wrap) *)
Lemma lazy_size_after_sum : forall sizes acc, acc + sumN sizes < 18446744073709551616 ->
  fold_left (fun x s => u64 (x + s)) sizes acc = acc + sumN sizes.
Proof.
  induction sizes as [|s t IH]; intros acc H; cbn [fold_left sumN] in *; [lia|].
  unfold u64 at 2. rewrite N.mod_small by lia. rewrite IH by lia. lia.
Qed.

(* examples/segmenter -lazy, one fragment of one track: AddSampleToTrack for samples a..b of the input track, Encode
   of the fragment's mdat (header only), then File.CopySampleData(a..b) from the lazily decoded input:
   what was written is a well-formed mdat box whose payload is exactly the bytes of samples a..b. *)
Lemma lazy_writer_end_to_end file startPos large payloadLen tb chunks a b ws zeof orc sp :
  box_in_file file startPos large payloadLen = true ->
  chunks_cover a b chunks = true ->
  chunks_in_payload tb startPos large payloadLen chunks = true ->
  sumN (sizes_from tb a (N.to_nat (b + 1 - a))) < 9223372036854775792 ->
  let total := lazy_size_after (sizes_from tb a (N.to_nat (b + 1 - a))) in
  let largeW := 4294967296 - 1 - 8 <? total in
  exists h p,
    mdat_encode (mdat_for_writing sp total) = Ok h
    /\ copy_sample_data true file zeof (mdat_lazy startPos large payloadLen) (Some (mkRS 0 orc)) tb chunks a b ws = Ok p
    /\ copy_sample_data true file zeof (mdat_mem file startPos large payloadLen) (Some (mkRS 0 orc)) tb chunks a b ws = Ok p
    /\ p = expected_samples file tb chunks a b
    /\ lenN p = total
    /\ total = sumN (sizes_from tb a (N.to_nat (b + 1 - a)))
    /\ lenN h = hdr_len largeW
    /\ header_at (h ++ p) 0 largeW total = true
    /\ box_in_file (h ++ p) 0 largeW total = true
    /\ sub (h ++ p) (hdr_len largeW) total = p.
Proof.
  intros Hb Hc Hp Hs total largeW.
  assert (Ht : total = sumN (sizes_from tb a (N.to_nat (b + 1 - a)))).
  { unfold total, lazy_size_after. rewrite lazy_size_after_sum by lia. lia. }
  assert (Hl := expected_samples_len file startPos large payloadLen tb chunks a b Hb Hc Hp).
  destruct (copy_samples file startPos large payloadLen tb chunks a b ws zeof orc Hb Hc Hp) as [Cm Cl].
  set (p := expected_samples file tb chunks a b) in *.
  assert (Hlp : lenN p = total) by lia.
  destruct (lazy_writer p sp) as (h & E & L & Hh & Hbx & _ & Hsub); [lia|].
  rewrite Hlp in *. fold largeW in L, Hh, Hbx, Hsub.
  exists h, p. repeat split; assumption.
Qed.
