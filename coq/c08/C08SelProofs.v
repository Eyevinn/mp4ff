(* C08SelProofs.v — the mdat selected as File.Mdat is the same top-level box in both decode modes. *)
From V.lib Require Import Base.
From V.c08 Require Import C08Model C08Spec C08ReadProofs C08HeaderProofs C08TreeProofs C08SelModel.

Lemma mdat_size_after m : mdat_size (after_size m) = mdat_size m.
Proof.
  unfold after_size, mdat_size. cbn [lazyDataSize Data LargeSize snd].
  destruct (LargeSize m); cbn [orb]; [reflexivity|].
  destruct (maxNormalPayloadSize <? (if 0 <? lazyDataSize m then lazyDataSize m else lenN (Data m))); reflexivity.
Qed.

Lemma payload_size_after m : payload_size (after_size m) = payload_size m.
Proof. unfold payload_size. rewrite mdat_size_after. reflexivity. Qed.

Lemma after_size_idem m : after_size (after_size m) = after_size m.
Proof. unfold after_size at 1. rewrite mdat_size_after. reflexivity. Qed.

Lemma mdat_view_after m : mdat_view (after_size m) = mdat_view m.
Proof. unfold mdat_view. rewrite after_size_idem, mdat_size_after. reflexivity. Qed.

(* what the API shows of an mdat handle: the view and Size()-HeaderSize() *)
Definition key (m : mdat) : (N * bool * N * N) * N := (mdat_view m, payload_size m).

Lemma key_after m : key (after_size m) = key m.
Proof. unfold key. rewrite mdat_view_after, payload_size_after. reflexivity. Qed.

Section TwoBoxes.
  Variables (file : list N) (pos : N) (large : bool) (payloadLen : N).
  Hypothesis Hb : pos + hdr_len large + payloadLen <= lenN file.
  Hypothesis Hfl : lenN file < 9223372036854775808.
  Hypothesis Hsz : large = true \/ 8 + payloadLen < 4294967296.

  Let S1 : mdat_size (mdat_lazy pos large payloadLen) = (hdr_len large + payloadLen, large).
  Proof. apply mdat_size_lazy; [lia|exact Hsz]. Qed.
  Let S2 : mdat_size (mdat_mem file pos large payloadLen) = (hdr_len large + payloadLen, large).
  Proof. now apply mdat_size_mem. Qed.

  Lemma payload_size_both :
    payload_size (mdat_lazy pos large payloadLen) = payloadLen
    /\ payload_size (mdat_mem file pos large payloadLen) = payloadLen.
  Proof.
    unfold payload_size. rewrite S1, S2.
    destruct large; cbn [hdr_len]; rewrite u64z_small by (unfold two64; lia); split; lia.
  Qed.

  Lemma mdat_view_both : mdat_view (mdat_lazy pos large payloadLen) = mdat_view (mdat_mem file pos large payloadLen).
  Proof. unfold mdat_view, after_size. now rewrite S1, S2. Qed.

  Lemma key_both : key (mdat_lazy pos large payloadLen) = key (mdat_mem file pos large payloadLen).
  Proof. unfold key. destruct payload_size_both as [-> ->]. now rewrite mdat_view_both. Qed.
End TwoBoxes.

(* the two modes' current selections denote the same box *)
Definition sel_rel (a b : option mdat) : Prop :=
  match a, b with
  | None, None => True
  | Some x, Some y => mdat_view x = mdat_view y /\ payload_size x = payload_size y
  | _, _ => False
  end.

Definition res_rel (a b : res (option mdat)) : Prop :=
  match a, b with
  | Ok x, Ok y => sel_rel x y
  | Err, Err => True
  | _, _ => False
  end.

Lemma res_rel_bind a b f g :
  res_rel a b -> (forall x y, sel_rel x y -> res_rel (f x) (g y)) -> res_rel (rbind a f) (rbind b g).
Proof. destruct a, b; cbn [res_rel rbind]; intros H Hfg; try contradiction; auto. Qed.

Lemma step_rel cn cl mn ml sn sl :
  sel_rel cn cl -> mdat_view mn = mdat_view ml -> payload_size mn = payload_size ml ->
  res_rel (file_mdat_step cn (TMdat mn sn)) (file_mdat_step cl (TMdat ml sl)).
Proof.
  intros Hr Hv Hp. unfold file_mdat_step.
  destruct cn as [x|], cl as [y|]; cbn [sel_rel] in Hr; try contradiction.
  - destruct Hr as [Hxv Hxp]. rewrite Hxp, Hp.
    destruct ((0 <? payload_size y) && (0 <? payload_size ml)); [exact I|].
    destruct (payload_size y =? 0); cbn [res_rel sel_rel]; rewrite !mdat_view_after, !payload_size_after; auto.
  - cbn [res_rel sel_rel]. auto.
Qed.

Lemma file_mdat_rel file : lenN file < 9223372036854775808 ->
  forall bs pos cn cl, sel_rel cn cl -> layout_at file pos bs = true ->
  res_rel (file_mdat cn (views false file pos bs)) (file_mdat cl (views true file pos bs)).
Proof.
  intros Hfl. induction bs as [|b t IH]; intros pos cn cl Hr Hl; [exact Hr|].
  destruct (layout_head file pos b t Hl) as (_ & Hb & Ht & Hsz).
  rewrite !views_cons. cbn [file_mdat]. apply res_rel_bind; [|intros x y Hxy; now apply IH].
  unfold view1. destruct (eqb_list (bname b) name_mdat); [|exact Hr].
  destruct (payload_size_both file pos (blarge b) (bplen b) Hb Hfl Hsz) as [P1 P2].
  apply step_rel; [exact Hr|symmetry; now apply mdat_view_both|congruence].
Qed.

(* DecodeFile in both modes on a file that is exactly a sequence of boxes: either both reject it (two
   non-empty mdat boxes) or both select the same top-level mdat (same StartPos, LargeSize, Size() and
   PayloadAbsoluteOffset()), or both select none *)
Lemma file_mdat_equal file zeof bs orc1 orc2 :
  lenN file < 9223372036854775808 ->
  layout_at file 0 bs = true ->
  res_rel (decode_file_mdat (S (length bs)) false file zeof (mkRS 0 orc1))
          (decode_file_mdat (S (length bs)) true file zeof (mkRS 0 orc2))
  /\ decode_file_mdat (S (length bs)) true file zeof (mkRS 0 orc2) = file_mdat None (views true file 0 bs).
Proof.
  intros Hfl Hl. unfold decode_file_mdat.
  rewrite (decode_file_top_ok false file zeof Hfl bs 0 orc1 Hl).
  rewrite (decode_file_top_ok true file zeof Hfl bs 0 orc2 Hl). cbn [rbind].
  split; [|reflexivity]. apply file_mdat_rel; [assumption|exact I|assumption].
Qed.

(* characterisation: the one non-empty mdat is File.Mdat, whatever empty mdat boxes and other boxes
   come before or after it; a second non-empty one is an error *)
Definition nonempty_mdat (b : topbox) : bool :=
  match b with TMdat m _ => 0 <? payload_size m | TBox _ _ _ => false end.

Lemma file_mdat_keeps : forall bs y,
  0 < payload_size y -> forallb (fun b => negb (nonempty_mdat b)) bs = true ->
  exists z, file_mdat (Some y) bs = Ok (Some z) /\ key z = key y.
Proof.
  induction bs as [|b t IH]; intros y Hy Hall.
  - cbn. exists y. auto.
  - cbn [forallb] in Hall. apply andb_prop in Hall. destruct Hall as [Hb Ht].
    cbn [file_mdat]. destruct b as [nm sp sz|m sz]; cbn [file_mdat_step rbind].
    + apply IH; assumption.
    + cbn [nonempty_mdat] in Hb. apply negb_true_iff in Hb. rewrite Hb.
      rewrite andb_false_r.
      replace (payload_size y =? 0) with false by lia. cbn [rbind].
      destruct (IH (after_size y)) as [z [Hz Hk]]; try assumption.
      { rewrite payload_size_after. exact Hy. }
      exists z. split; [exact Hz|]. rewrite Hk. apply key_after.
Qed.

Lemma file_mdat_second_nonempty : forall bs y,
  0 < payload_size y -> existsb nonempty_mdat bs = true -> file_mdat (Some y) bs = Err.
Proof.
  induction bs as [|b t IH]; intros y Hy Hex; [discriminate|].
  cbn [existsb] in Hex. cbn [file_mdat].
  destruct b as [nm sp sz|m sz]; cbn [file_mdat_step rbind nonempty_mdat] in *.
  - apply IH; assumption.
  - replace (0 <? payload_size y) with true by lia. cbn [andb].
    destruct (0 <? payload_size m) eqn:Em; [reflexivity|].
    replace (payload_size y =? 0) with false by lia. cbn [rbind orb] in *.
    apply IH; [rewrite payload_size_after; exact Hy | exact Hex].
Qed.

Lemma file_mdat_reaches : forall pre cur m sz rest,
  forallb (fun b => negb (nonempty_mdat b)) pre = true ->
  match cur with Some c => payload_size c = 0 | None => True end ->
  0 < payload_size m ->
  exists m', key m' = key m /\ file_mdat cur (pre ++ TMdat m sz :: rest) = file_mdat (Some m') rest.
Proof.
  induction pre as [|b t IH]; intros cur m sz rest Hall Hc Hm.
  - cbn [app file_mdat file_mdat_step]. destruct cur as [c|].
    + rewrite Hc. cbn [N.ltb N.compare andb N.eqb rbind]. exists (after_size m). split; [apply key_after|reflexivity].
    + cbn [rbind]. exists m. auto.
  - cbn [forallb] in Hall. apply andb_prop in Hall. destruct Hall as [Hb Ht].
    cbn [app file_mdat]. destruct b as [nm sp sz'|m0 sz']; cbn [file_mdat_step].
    + cbn [rbind]. apply IH; assumption.
    + cbn [nonempty_mdat] in Hb. apply negb_true_iff in Hb. apply N.ltb_ge in Hb.
      assert (H0 : payload_size m0 = 0) by lia.
      destruct cur as [c|].
      * rewrite Hc, H0. cbn [N.ltb N.compare andb N.eqb rbind].
        apply IH; try assumption. rewrite payload_size_after. exact H0.
      * cbn [rbind]. apply IH; assumption.
Qed.

(* exactly one non-empty mdat: it is selected; a second one: error *)
Lemma file_mdat_spec pre m sz rest :
  forallb (fun b => negb (nonempty_mdat b)) pre = true -> 0 < payload_size m ->
  (forallb (fun b => negb (nonempty_mdat b)) rest = true ->
     exists z, file_mdat None (pre ++ TMdat m sz :: rest) = Ok (Some z) /\ key z = key m)
  /\ (existsb nonempty_mdat rest = true -> file_mdat None (pre ++ TMdat m sz :: rest) = Err).
Proof.
  intros Hpre Hm.
  destruct (file_mdat_reaches pre None m sz rest Hpre I Hm) as [m' [Hk E]].
  assert (Hm' : 0 < payload_size m').
  { pose proof (f_equal snd Hk) as Hp. unfold key in Hp. cbn [snd] in Hp. rewrite Hp. exact Hm. }
  split; intros Hrest; rewrite E.
  - destruct (file_mdat_keeps rest m' Hm' Hrest) as [z [Hz Hkz]].
    exists z. split; [exact Hz|]. rewrite Hkz. exact Hk.
  - apply file_mdat_second_nonempty; assumption.
Qed.

(* with the DataLength() reading of "empty" the lazily decoded media mdat is replaced by a later empty mdat *)
Lemma file_mdat_datalength_refuted :
  exists file bs,
    layout_at file 0 bs = true /\
    option_map mdat_view (match file_mdat_dl None (views false file 0 bs) with Ok r => r | _ => None end)
    <> option_map mdat_view (match file_mdat_dl None (views true file 0 bs) with Ok r => r | _ => None end).
Proof.
  exists [0;0;0;10;109;100;97;116;1;2; 0;0;0;8;109;100;97;116], [mkBD name_mdat false 2; mkBD name_mdat false 0].
  split; [vm_compute; reflexivity|]. vm_compute. discriminate.
Qed.
