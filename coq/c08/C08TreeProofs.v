(* C08TreeProofs.v — DecodeFile's top-level walk gives the same boxes, sizes and positions in both modes. *)
From V.lib Require Import Base.
From V.c08 Require Import C08Model C08Spec C08ReadProofs C08HeaderProofs.

(* the first box of a layout *)
Lemma layout_head file pos b t : layout_at file pos (b :: t) = true ->
  header_at_n file pos (bname b) (blarge b) (bplen b) = true
  /\ pos + hdr_len (blarge b) + bplen b <= lenN file
  /\ layout_at file (pos + hdr_len (blarge b) + bplen b) t = true
  /\ (blarge b = true \/ 8 + bplen b < 4294967296).
Proof.
  cbn [layout_at]. intros Hl. apply andb_prop in Hl. destruct Hl as [Hl Ht].
  apply andb_prop in Hl. destruct Hl as [Hh Hb]. apply N.leb_le in Hb.
  repeat split; try assumption. now apply header_at_n_inv in Hh.
Qed.

(* what a decode mode is expected to produce for the box b at pos: one element of `views` *)
Definition view1 (lazy : bool) (file : list N) (pos : N) (b : boxdesc) : topbox :=
  let size := hdr_len (blarge b) + bplen b in
  if eqb_list (bname b) name_mdat
  then TMdat (if lazy then mdat_lazy pos (blarge b) (bplen b) else mdat_mem file pos (blarge b) (bplen b)) size
  else TBox (bname b) pos size.

Lemma views_cons lazy file pos b t :
  views lazy file pos (b :: t) = view1 lazy file pos b :: views lazy file (pos + hdr_len (blarge b) + bplen b) t.
Proof. cbn [views]. now rewrite N.add_assoc. Qed.

Lemma view1_size lazy file pos b :
  match view1 lazy file pos b with TBox _ _ s => s | TMdat _ s => s end = hdr_len (blarge b) + bplen b.
Proof. unfold view1. now destruct (eqb_list (bname b) name_mdat). Qed.

Lemma decode_box_top_ok lazy file zeof pos b orc :
  pos + hdr_len (blarge b) + bplen b <= lenN file -> lenN file < 9223372036854775808 ->
  header_at_n file pos (bname b) (blarge b) (bplen b) = true ->
  exists o, decode_box_top lazy file zeof pos (mkRS pos orc)
            = RfOk (view1 lazy file pos b, mkRS (pos + hdr_len (blarge b) + bplen b) o).
Proof.
  intros Hb Hfl Hh. destruct b as [name large plen]. cbn [bname blarge bplen] in *.
  destruct (decode_header_ok file zeof pos name large plen orc Hb Hfl Hh) as (o & Hd). exists o.
  apply header_at_n_inv in Hh. destruct Hh as (_ & Hsz & _).
  unfold decode_box_top, view1. rewrite Hd. cbn [hname hsize hlen bname blarge bplen].
  destruct (eqb_list name name_mdat); [destruct lazy|].
  - rewrite decode_mdat_lazily_eq, seek_payload_ok, mdat_size_lazy by first [assumption|lia]. reflexivity.
  - rewrite decode_mdat_ok, mdat_size_mem by assumption. reflexivity.
  - rewrite read_box_body_ok by assumption. reflexivity.
Qed.

Lemma decode_box_top_eof lazy file zeof orc :
  decode_box_top lazy file zeof (lenN file) (mkRS (lenN file) orc) = RfEOF.
Proof.
  unfold decode_box_top, decode_header, read_full. cbn [N.to_nat read_full_loop].
  change (8 =? 0) with false. cbn match.
  unfold rs_read. change (8 =? 0) with false. cbn [andb rpos].
  rewrite N.leb_refl. reflexivity.
Qed.

Lemma decode_file_top_ok lazy file zeof : lenN file < 9223372036854775808 ->
  forall bs pos orc,
  layout_at file pos bs = true ->
  decode_file_top (S (length bs)) lazy file zeof pos (mkRS pos orc) = Ok (views lazy file pos bs).
Proof.
  intros Hfl. induction bs as [|b t IH]; intros pos orc Hl.
  - cbn [layout_at] in Hl. apply N.eqb_eq in Hl. subst pos.
    cbn [length decode_file_top]. now rewrite decode_box_top_eof.
  - destruct (layout_head file pos b t Hl) as (Hh & Hin & Hrest & _).
    destruct (decode_box_top_ok lazy file zeof pos b orc Hin Hfl Hh) as (o & Hd).
    change (length (b :: t)) with (S (length t)).
    remember (S (length t)) as fu eqn:Efu. cbn [decode_file_top]. rewrite Hd, view1_size. subst fu.
    rewrite u64_small, N.add_assoc, IH, views_cons by first [exact Hrest|lia]. reflexivity.
Qed.

Lemma views_erase file : forall bs pos,
  map erase (views false file pos bs) = map erase (views true file pos bs).
Proof.
  induction bs as [|b t IH]; intros pos; [reflexivity|].
  rewrite !views_cons. cbn [map]. rewrite IH. f_equal.
  unfold view1. now destruct (eqb_list (bname b) name_mdat).
Qed.

(* both walks succeed, and agree on type, position, size (and LargeSize of mdat) of every top-level box *)
Lemma tree_equal file zeof bs orc1 orc2 :
  lenN file < 9223372036854775808 ->
  layout_at file 0 bs = true ->
  exists t1 t2,
    decode_file_top (S (length bs)) false file zeof 0 (mkRS 0 orc1) = Ok t1
    /\ decode_file_top (S (length bs)) true file zeof 0 (mkRS 0 orc2) = Ok t2
    /\ t1 = views false file 0 bs /\ t2 = views true file 0 bs
    /\ map erase t1 = map erase t2.
Proof.
  intros Hfl Hl. exists (views false file 0 bs), (views true file 0 bs).
  repeat split; try (apply decode_file_top_ok; assumption). apply views_erase.
Qed.
