(* C19LeafProofs.v — the tools for replaying C01's decoders (dec_* of the box model) on the bytes its encoders
   write (body_leaf with the encoder's reserved bytes dflt_rsv): a big-endian field, a byte chunk, the version/flags
   word read back; the reserved chunks kept opaque meanwhile. *)
From V.lib Require Import Base.
From V.c19 Require Import C19BoxCodec C19BoxModel.

Lemma rd_be n v r : v < 256 ^ N.of_nat n -> rd n (be_enc n v ++ r) = Ok (v, r).
Proof.
  intros H. unfold rd. replace (take n (be_enc n v ++ r)) with (take (length (be_enc n v)) (be_enc n v ++ r))
    by (now rewrite length_be_enc).
  rewrite take_app, be_dec_enc_small by exact H. reflexivity.
Qed.
Lemma rd1 v r : v < 256 -> rd 1 (be_enc 1 v ++ r) = Ok (v, r).
Proof. intros. apply rd_be. exact H. Qed.
Lemma rd2 v r : v < 65536 -> rd 2 (be_enc 2 v ++ r) = Ok (v, r).
Proof. intros. apply rd_be. exact H. Qed.
Lemma rd4 v r : v < 4294967296 -> rd 4 (be_enc 4 v ++ r) = Ok (v, r).
Proof. intros. apply rd_be. exact H. Qed.

Lemma rdB_app k x r : lenN x = k -> rdB k (x ++ r) = Ok (x, r).
Proof.
  intros <-. unfold rdB. rewrite lenN_app.
  replace (lenN x + lenN r <? lenN x) with false by (symmetry; apply N.ltb_ge; lia).
  unfold lenN. rewrite Nat2N.id, take_app. reflexivity.
Qed.

(* version 0, flags < 2^24: the version/flags word reads back *)
Lemma vf0 f : f < 16777216 -> vf_join 0 f = f /\ vf_version f = 0 /\ vf_flags f = f.
Proof. intros H. unfold vf_join, vf_version, vf_flags, u32. repeat split; lia. Qed.

Ltac getb Hb :=
  match type of Hb with Ok ?x = Ok ?b => let E := fresh in assert (E : b = x) by congruence; subst b; clear Hb end.

Ltac pp :=
  repeat first
    [ rewrite rd4 by lia | rewrite rd2 by lia | rewrite rd1 by lia
    | rewrite rdB_app by (first [assumption | reflexivity]) ].

(* the reserved chunks are kept opaque while the parser is replayed *)
Ltac hide_chunks :=
  repeat match goal with
         | |- context [zeros ?n] =>
             let z := fresh "z" in let E := fresh "E" in let L := fresh "L" in
             remember (zeros n) as z eqn:E;
             assert (L : lenN z = N.of_nat n) by (rewrite E; apply lenN_zeros);
             cbn [N.of_nat Pos.of_succ_nat Pos.succ] in L
         | |- context [unity_matrix] =>
             let z := fresh "m" in let E := fresh "E" in let L := fresh "L" in
             remember unity_matrix as z eqn:E;
             assert (L : lenN z = 36) by (rewrite E; reflexivity)
         end.
