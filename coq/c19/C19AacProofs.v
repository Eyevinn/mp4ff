(* C19AacProofs.v — the AudioSpecificConfig of SetAACDescriptor, tied to C18's configuration codec (coq/c18, imported
   read-only): C19Model.asc_encode (aac.AudioSpecificConfig.Encode through the C13 writer machine) writes exactly the bytes of
   C18Model.encode_asc for the same configuration (C18_writer_tie_asc), hence
     - they are at most 10 bytes (the esds size fields stay one byte: entry_okb),
     - C18's DecodeAudioSpecificConfig model reads them back as the configuration SUPPLIED: object type, sampling frequency,
       channel configuration 2 (1 for HE-AAC v2), extension frequency 2f and the SBR / PS flags for the HE types
       (C18_asc_roundtrip, general in the frequency: no enumeration),
   and these bytes are the DecConfig of the DecSpecificInfo inside the TYPED esds leaf of the sample entry, which decodes
   (box model) to itself. *)
From Coq Require Import String Ascii.
From V.lib Require Import Base.
From V.c13 Require Import C13Model.
From V.c19 Require Import C19BoxCodec C19BoxModel.
From V.c19 Require Import C19Model C19Spec C19DescProofs C19TreeModel C19LeafProofs C19PrintParseProofs C19LeafPPProofs C19EsdsProofs.
From V.c18 Require C18Model C18BitsProofs C18AscProofs C18TieProofs C18EntryModel.

Definition wops_of (fs : list (N * N)) : list wop := map (fun p => WBits (fst p) (snd p)) fs.

Lemma run_fields fs : forall s, fold_left wstep_plain (wops_of fs) s = C18TieProofs.go_write_state fs s.
Proof.
  induction fs as [|[v w] fs IH]; intros s; [reflexivity|].
  cbn [wops_of map fold_left fst snd]. unfold C18TieProofs.go_write_state. cbn [fold_left]. apply IH.
Qed.

Lemma go_write_ops fs : wout (run_writer_plain (wops_of fs ++ [WFlush])) = C18TieProofs.go_write fs true.
Proof.
  unfold run_writer_plain, C18TieProofs.go_write. rewrite fold_left_app. cbn [fold_left wstep_plain]. rewrite run_fields. reflexivity.
Qed.

Lemma freq_index_c18 f : freq_index f = C18Model.index_of_freq (Z.of_N f).
Proof.
  unfold freq_index, C18Model.index_of_freq, C18Model.reverse_frequencies. cbn [C18Model.lookup_freq].
  repeat match goal with
         | |- (if ?f0 =? ?k then _ else _) = _ =>
             let E := fresh "E" in
             destruct (f0 =? k) eqn:E;
             [apply N.eqb_eq in E; subst; reflexivity
             |apply N.eqb_neq in E;
              match goal with |- _ = (if (?z =? _)%Z then _ else _) =>
                replace (z =? Z.of_N f0)%Z with false by (symmetry; apply Z.eqb_neq; lia) end; cbv iota]
         end.
  reflexivity.
Qed.

Lemma freq_ops_c18 f : f < 18446744073709551616 -> freq_ops f = wops_of (C18TieProofs.freq_fields (Z.of_N f)).
Proof.
  intros Hf. unfold freq_ops, C18TieProofs.freq_fields. rewrite freq_index_c18.
  destruct (C18Model.index_of_freq (Z.of_N f)); [reflexivity|].
  cbn [wops_of map fst snd]. unfold C18Model.uint_of_int. rewrite Z.mod_small by lia. rewrite N2Z.id. reflexivity.
Qed.

Definition asc_of (o f chan ext : N) : C18Model.asc :=
  C18Model.mkAsc o chan (Z.of_N f) (Z.of_N ext) ((o =? 5) || (o =? 29)) (o =? 29).

Lemma asc_encode_c18 o f chan ext bs :
  f < 18446744073709551616 -> ext < 18446744073709551616 ->
  asc_encode o f chan ext = Some bs -> C18Model.encode_asc (asc_of o f chan ext) = Ok bs.
Proof.
  intros Hf He. unfold asc_encode, AAClc, HEAACv1, HEAACv2.
  destruct ((o =? 2) || (o =? 5) || (o =? 29)) eqn:Eo; [|discriminate]. intros [= <-].
  assert (Hx : exists bs', C18Model.encode_asc (asc_of o f chan ext) = Ok bs').
  { unfold C18Model.encode_asc, asc_of, C18Model.AAClc, C18Model.HEAACv1, C18Model.HEAACv2. cbn [C18Model.a_ot].
    rewrite Eo. eexists. reflexivity. }
  destruct Hx as [bs' Hx]. rewrite Hx. f_equal. rewrite <- (C18TieProofs.encode_asc_tie _ _ Hx).
  rewrite <- go_write_ops. f_equal. f_equal.
  unfold C18TieProofs.asc_fields, asc_of, C18Model.HEAACv1, C18Model.HEAACv2, C18Model.AAClc.
  cbn [C18Model.a_ot C18Model.a_chan C18Model.a_freq C18Model.a_ext].
  unfold wops_of. rewrite !map_app. fold wops_of. rewrite <- !freq_ops_c18 by assumption.
  destruct ((o =? 5) || (o =? 29)).
  - rewrite map_app. fold wops_of. rewrite <- freq_ops_c18 by assumption. cbn [map fst snd app].
    repeat (progress (rewrite <- ?app_assoc; cbn [app])). reflexivity.
  - cbn [map fst snd app]. repeat (progress (rewrite <- ?app_assoc; cbn [app])). reflexivity.
Qed.

Lemma pack_length_n n : forall l, (length l <= n)%nat -> (8 * length (C18Model.pack l) <= length l)%nat.
Proof.
  induction n as [|n IH]; intros l Hl.
  - destruct l; [cbn; lia|cbn in Hl; lia].
  - destruct l as [|b7 [|b6 [|b5 [|b4 [|b3 [|b2 [|b1 [|b0 t]]]]]]]]; cbn [C18Model.pack length]; try lia.
    specialize (IH t). cbn [length] in Hl. assert (length t <= n)%nat by lia. specialize (IH H). lia.
Qed.

Lemma freq_field_len f : (length (C18Model.freq_field f) <= 28)%nat.
Proof.
  unfold C18Model.freq_field. destruct (C18Model.index_of_freq f); rewrite ?app_length, !C18BitsProofs.to_bits_length; lia.
Qed.

Lemma asc_len o f chan ext bs :
  f < 18446744073709551616 -> ext < 18446744073709551616 -> asc_encode o f chan ext = Some bs -> lenN bs <= 10.
Proof.
  intros Hf He H. apply asc_encode_c18 in H; try assumption.
  unfold C18Model.encode_asc in H. destruct (_ || _ || _); [|discriminate]. injection H as <-.
  set (l := C18Model.flush _).
  pose proof (pack_length_n (length l) l (Nat.le_refl _)) as Hp.
  assert (Hl : (length l <= 80)%nat).
  { subst l. unfold C18Model.flush, C18Model.pad_len. rewrite app_length, repeat_length.
    assert (Hb : (length (C18Model.asc_bits (asc_of o f chan ext)) <= 73)%nat).
    { unfold C18Model.asc_bits. pose proof (freq_field_len (C18Model.a_freq (asc_of o f chan ext))).
      pose proof (freq_field_len (C18Model.a_ext (asc_of o f chan ext))).
      destruct (_ || _); rewrite ?app_length, !C18BitsProofs.to_bits_length; lia. }
    set (n := length _) in *.
    pose proof (Nat.mod_upper_bound n 8). pose proof (Nat.mod_upper_bound (8 - n mod 8) 8).
    assert ((n + (8 - n mod 8) mod 8) mod 8 = 0)%nat.
    { pose proof (Nat.div_mod n 8). destruct (Nat.eq_dec (n mod 8) 0) as [E|E].
      - rewrite E. cbn [Nat.sub]. change (8 mod 8)%nat with 0%nat. rewrite Nat.add_0_r. exact E.
      - rewrite (Nat.mod_small (8 - n mod 8)) by lia.
        replace (n + (8 - n mod 8))%nat with ((n / 8 + 1) * 8)%nat by lia. apply Nat.mod_mul. lia. }
    pose proof (Nat.div_mod (n + (8 - n mod 8) mod 8) 8). lia. }
  unfold lenN. lia.
Qed.

Lemma set_aac_asc_of o f :
  let chan := if o =? 29 then 1 else 2 in
  let ext := if (o =? 5) || (o =? 29) then 2 * f else 0 in
  (o =? 2) || (o =? 5) || (o =? 29) = true ->
  asc_of o f chan ext = C18EntryModel.set_aac_asc o (Z.of_N f).
Proof.
  cbv zeta. intros Ho. unfold asc_of, C18EntryModel.set_aac_asc, C18Model.HEAACv1, C18Model.HEAACv2.
  destruct (o =? 5) eqn:E5.
  - apply N.eqb_eq in E5. subst o. cbn [N.eqb Pos.eqb orb]. rewrite N2Z.inj_mul. reflexivity.
  - destruct (o =? 29) eqn:E29.
    + apply N.eqb_eq in E29. subst o. cbn [N.eqb Pos.eqb orb]. rewrite N2Z.inj_mul. reflexivity.
    + cbn [orb]. reflexivity.
Qed.

Lemma aac_config_c18 t o f t' :
  f < 8388608 -> set_aac t o f = (OOk, t') ->
  let chan := if o =? 29 then 1 else 2 in
  exists asc,
    sd_entries t' = sd_entries t ++ [mkSE (BS "mp4a") 1 chan 16 (f mod 65536) (CfgEsds asc)]
    /\ lenN asc <= 10
    /\ C18Model.encode_asc (C18EntryModel.set_aac_asc o (Z.of_N f)) = Ok asc
    /\ C18Model.decode_asc asc = Ok (C18EntryModel.set_aac_asc o (Z.of_N f))
    /\ C18Model.a_ot (C18EntryModel.set_aac_asc o (Z.of_N f)) = o
    /\ C18Model.a_freq (C18EntryModel.set_aac_asc o (Z.of_N f)) = Z.of_N f
    /\ C18Model.a_chan (C18EntryModel.set_aac_asc o (Z.of_N f)) = chan.
Proof.
  intros Hf H. cbv zeta. destruct (set_aac_ok t o f t' H) as (asc & Henc & He & _).
  cbv zeta in Henc. change HEAACv2 with 29 in *. change HEAACv1 with 5 in *.
  set (chan := if o =? 29 then 1 else 2) in *. set (ext := if (o =? 5) || (o =? 29) then 2 * f else 0) in *.
  assert (Hext : ext < 18446744073709551616) by (subst ext; destruct (_ || _); lia).
  assert (Ho : (o =? 2) || (o =? 5) || (o =? 29) = true).
  { unfold asc_encode, AAClc, HEAACv1, HEAACv2 in Henc. destruct (_ || _ || _); [reflexivity|discriminate]. }
  exists asc. split; [exact He|]. split; [eapply asc_len; [| |exact Henc]; lia|].
  pose proof (asc_encode_c18 o f chan ext asc ltac:(lia) Hext Henc) as Hc.
  unfold chan, ext in Hc. rewrite (set_aac_asc_of o f Ho) in Hc. split; [exact Hc|].
  assert (Hcan : C18Model.canonical (C18EntryModel.set_aac_asc o (Z.of_N f)) = true).
  { assert (Ho3 : o = 2 \/ o = 5 \/ o = 29).
    { apply orb_true_iff in Ho. destruct Ho as [Ho|Ho]; [apply orb_true_iff in Ho; destruct Ho as [Ho|Ho]|];
        apply N.eqb_eq in Ho; auto. }
    unfold C18EntryModel.set_aac_asc, C18Model.canonical, C18Model.freq_ok, C18Model.HEAACv1, C18Model.HEAACv2, C18Model.AAClc.
    destruct Ho3 as [-> | [-> | ->]];
      cbn [C18Model.a_ot C18Model.a_chan C18Model.a_freq C18Model.a_ext C18Model.a_sbr C18Model.a_ps N.eqb Pos.eqb orb andb negb Bool.eqb];
      repeat (apply andb_true_iff; split); try reflexivity; try (apply Z.leb_le; lia); try (apply Z.ltb_lt; lia). }
  pose proof (C18AscProofs.asc_roundtrip _ Hcan) as Hrt. rewrite Hc in Hrt. cbn [rbind] in Hrt.
  split; [exact Hrt|].
  unfold C18EntryModel.set_aac_asc, C18Model.HEAACv1, C18Model.HEAACv2. subst chan.
  destruct (o =? 5) eqn:E5; [apply N.eqb_eq in E5; subst o; repeat split|].
  destruct (o =? 29); repeat split.
Qed.

(* the typed sample entry: mp4a{esds} with the whole descriptor tree; it prints and parses back in the box model, and the
   DecSpecificInfo of its esds leaf holds exactly the configuration bytes *)
Lemma aac_entry_typed name dri ch ss sr asc :
  name = n_mp4a -> dri < 65536 -> ch < 65536 -> ss < 65536 -> sr < 65536 -> lenN asc <= 100 ->
  let e := mkSE name dri ch ss sr (CfgEsds asc) in
  exists b, entry_box e = Some b
    /\ b = preb (LAudio name dri ch ss sr) [leafb (esds_leaf asc)]
    /\ esds_dec_config (esds_leaf asc) = Some asc
    /\ exists enc, raw_box false b = Ok enc /\ lenN enc = size_box b
         /\ forall fuel r2, (fuel_of b <= fuel)%nat -> decode_box fuel (enc ++ r2) = Ok (b, r2).
Proof.
  intros Hn Hd Hc Hs Hr Hl e. eexists. split; [reflexivity|]. split; [reflexivity|]. split; [reflexivity|].
  cbn [se_name se_dref se_a se_b se_c].
  assert (Hw : wf (preb (LAudio name dri ch ss sr) [leafb (esds_leaf asc)])).
  { subst name. eapply (wf_pre _ dec_audio (PEntry 36)); [reflexivity|reflexivity|reflexivity|apply ppp_audio; assumption|reflexivity| |].
    - destruct (esds_sizes asc) as [_ Hsz]. cbn [map sumN size_box leafb hdr8 h_size]. rewrite Hsz. cbn [size_leaf]. lia.
    - constructor; [|constructor]. destruct (esds_sizes asc) as [_ Hsz].
      eapply wf_leaf; [reflexivity|reflexivity|reflexivity|rewrite Hsz; lia|apply lpp_esds; exact Hl]. }
  destruct (pp_box _ Hw) as (enc & H1 & H2 & _ & H4). exists enc. split; [exact H1|]. split; [exact H2|exact H4].
Qed.

(* SetAACDescriptor, through the typed tree *)
Theorem aac_typed t o f t' :
  f < 8388608 -> set_aac t o f = (OOk, t') ->
  let chan := if o =? 29 then 1 else 2 in
  let cfg := C18EntryModel.set_aac_asc o (Z.of_N f) in
  exists asc e b,
    sd_entries t' = sd_entries t ++ [e] /\ e = mkSE (BS "mp4a") 1 chan 16 (f mod 65536) (CfgEsds asc)
    /\ entry_box e = Some b /\ b = preb (LAudio (BS "mp4a") 1 chan 16 (f mod 65536)) [leafb (esds_leaf asc)]
    /\ (exists enc, raw_box false b = Ok enc /\ lenN enc = size_box b
          /\ forall fuel r2, (fuel_of b <= fuel)%nat -> decode_box fuel (enc ++ r2) = Ok (b, r2))
    /\ esds_dec_config (esds_leaf asc) = Some asc
    /\ C18Model.encode_asc cfg = Ok asc /\ C18Model.decode_asc asc = Ok cfg
    /\ C18Model.a_ot cfg = o /\ C18Model.a_freq cfg = Z.of_N f /\ C18Model.a_chan cfg = chan.
Proof.
  intros Hf H chan cfg. destruct (aac_config_c18 t o f t' Hf H) as (asc & He & Hl & Henc & Hdec & H1 & H2 & H3).
  fold chan in He, H3. fold cfg in Henc, Hdec, H1, H2, H3.
  assert (Hch : chan < 65536) by (subst chan; destruct (o =? 29); lia).
  destruct (aac_entry_typed (BS "mp4a") 1 chan 16 (f mod 65536) asc eq_refl ltac:(lia) Hch ltac:(lia)
              ltac:(apply N.mod_upper_bound; lia) ltac:(lia)) as (b & Hb & Hbe & Hdc & Hpp).
  exists asc, (mkSE (BS "mp4a") 1 chan 16 (f mod 65536) (CfgEsds asc)), b.
  repeat split; try assumption.
Qed.
