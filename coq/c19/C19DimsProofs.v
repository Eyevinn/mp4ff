(* C19DimsProofs.v — "a sample entry whose dimensions ... equal those supplied", stated WITHOUT reference to what a parser
   answers: the abstract SPS parsers of C19Model are instantiated with C15's models of avc.ParseSPSNALUnit(sps, false) and
   hevc.ParseSPSNALUnit + SPS.ImageSize (coq/c15, imported read-only), and C15's theorems (parser applied to the NAL unit
   written by the independent serialiser of the standard's syntax) give: for EVERY valid field assignment v of the SPS
   syntax, the sample entry that Set{AVC,HEVC}Descriptor builds from the NAL unit of v has
     width  = the CROPPED picture width of v  (7.4.2.1.1: PicWidthInMbs*16 - CropUnitX*(left+right); HEVC: (7-x) conformance window)
     height = the CROPPED picture height of v
   modulo 2^16 (the 16-bit fields), tkhd = the same in 16.16 fixed point -- whatever VUI v carries (sample aspect ratio,
   overscan, timing ...): display_width / h_display_width do not look at the VUI.  A SetAVCDescriptor that scaled the coded
   width by the sample aspect ratio (a "display width" in another sense) would falsify these statements on every SPS with a
   non-square SAR (C19_descriptor_dims_hyp: 40:33).
   Here: the two instantiated parsers and what they answer on the NAL unit of a valid v; the statements themselves are
   C19_descriptor_avc_dims / C19_descriptor_hevc_dims. *)
From V.lib Require Import Base.
From V.c19 Require Import C19Model C19Spec C19DescProofs.
From V.c15 Require C15Model C15Spec C15Theorems C15HevcModel C15HevcSpec C15HevcTheorems C15Examples C15HevcExamples.

(* avc.ParseSPSNALUnit(sps, false) as C19's parser argument: Width, Height, byte(Profile), byte(ProfileCompatibility),
   byte(Level), ChromaFormatIDC, BitDepthLumaMinus8, BitDepthChromaMinus8 of C15's model of the parser *)
Definition c15_avc_parser : str -> option avc_info := fun sps =>
  match C15Model.parse_sps_br false sps with
  | Ok s => Some (C15Model.sps_width s, C15Model.sps_height s,
                  (C15Model.sps_profile s mod 256, C15Model.sps_compat s mod 256, C15Model.sps_level s mod 256,
                   (C15Model.sps_chroma_format_idc s, C15Model.sps_bit_depth_luma_minus8 s,
                    C15Model.sps_bit_depth_chroma_minus8 s)))
  | _ => None
  end.

(* hevc.ParseSPSNALUnit + ImageSize() *)
Definition c15_hevc_parser : str -> option (N * N * list N) := fun sps =>
  match C15HevcModel.hparse_sps_br sps with
  | Ok s =>
      let '(w, h) := C15HevcModel.himage_size s in
      let p := C15HevcModel.h_ptl s in
      Some (w, h, [C15HevcModel.hp_space p; (if C15HevcModel.hp_tier p then 1 else 0); C15HevcModel.hp_idc p;
                   C15HevcModel.hp_compat p; C15HevcModel.hp_constraint p; C15HevcModel.hp_level p;
                   C15HevcModel.h_chroma s; C15HevcModel.h_bdl s; C15HevcModel.h_bdc s])
  | _ => None
  end.

Lemma c15_avc_parser_valid v :
  C15Spec.sps_valid v = true ->
  exists p c l x, c15_avc_parser (C15Spec.nalu_sps v) = Some (C15Spec.display_width v, C15Spec.display_height v, (p, c, l, x)).
Proof.
  intros Hv. unfold c15_avc_parser. rewrite (C15Theorems.C15_avc_sps_all_valid v false Hv).
  unfold C15Spec.expected_sps_gen. cbn [C15Model.sps_width C15Model.sps_height]. eexists _, _, _, _. reflexivity.
Qed.

Lemma c15_hevc_parser_valid v :
  C15HevcSpec.hsps_valid v = true ->
  exists cfg, c15_hevc_parser (C15HevcSpec.hnalu_sps v) = Some (C15HevcSpec.h_display_width v, C15HevcSpec.h_display_height v, cfg).
Proof.
  intros Hv. unfold c15_hevc_parser. rewrite (C15HevcTheorems.C15_hevc_sps v Hv).
  rewrite (C15HevcTheorems.C15_hevc_dims v Hv). unfold C15HevcSpec.expected_himage_size. eexists. reflexivity.
Qed.
