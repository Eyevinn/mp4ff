(* C19PrintParseProofs.v — print-then-parse through C01's generic box decoder: for every tree built from
   well-formed parts (wf: each leaf prints and parses back, names are dispatched the way the tree says, sizes fit
   32 bits, moov children in a stable order) the bytes of C01's encoder decode, with C01's decode_box, to exactly
   that tree.  This is the converse direction of C01_tree (decode then encode), for constructed trees. *)
From V.lib Require Import Base.
From V.c19 Require Import C19BoxCodec C19BoxModel.
From V.c19 Require Import C19Model C19TreeModel C19LeafProofs.

(* ------------------------------------------------------------------ facts about C01's definitions
   (the same statements exist in coq/c01/C01TreeProofs.v; they are re-proved here so that this file depends on
   C01's DEFINITION files only, which always compile) *)
Lemma header_rt name sz r :
  lenN name = 4 -> 8 <= sz < 4294967296 ->
  dec_hdr (enc_hdr name sz ++ r) = Ok (mkHdr name sz 8, r).
Proof.
  intros Hn [Hlo Hhi]. unfold dec_hdr, enc_hdr, pbind. rewrite <- app_assoc.
  rewrite rd4 by lia. rewrite <- Hn, rdB_app by reflexivity.
  replace (sz =? 1) with false by (symmetry; apply N.eqb_neq; lia).
  replace (sz =? 0) with false by (symmetry; apply N.eqb_neq; lia).
  replace (sz <? 8) with false by (symmetry; apply N.ltb_ge; lia).
  reflexivity.
Qed.

Lemma lenN_enc_hdr name sz : lenN name = 4 -> lenN (enc_hdr name sz) = 8.
Proof. intros Hn. unfold enc_hdr. rewrite lenN_app, lenN_be_enc, Hn. reflexivity. Qed.

Lemma moov_stable_id {A} (f : A -> bool) cs : forall acc,
  moov_stable_from f acc cs = true -> fold_left (moov_add f) cs acc = acc ++ cs.
Proof.
  induction cs as [|c t IH]; intros acc H; cbn [fold_left moov_stable_from] in *.
  - now rewrite app_nil_r.
  - apply andb_true_iff in H. destruct H as [H1 H2]. apply negb_true_iff in H1.
    unfold moov_add at 2. rewrite H1. rewrite (IH _ H2). now rewrite <- app_assoc.
Qed.

Section MapStable.
  Context {A B : Type} (fa : A -> bool) (g : A -> bool * B) (Hg : forall a, fst (g a) = fa a).
  Lemma last_trak_idx_map cs : forall i acc,
    C19BoxModel.last_trak_idx fst (map g cs) i acc = C19BoxModel.last_trak_idx fa cs i acc.
  Proof.
    induction cs as [|c t IH]; intros i acc; cbn [map C19BoxModel.last_trak_idx]; [reflexivity|].
    now rewrite Hg, IH.
  Qed.
  Lemma moov_cond_map acc c : moov_cond fst (map g acc) (g c) = moov_cond fa acc c.
  Proof. unfold moov_cond. now rewrite Hg, last_trak_idx_map, map_length. Qed.
  Lemma moov_stable_map cs : forall acc,
    moov_stable_from fst (map g acc) (map g cs) = moov_stable_from fa acc cs.
  Proof.
    induction cs as [|c t IH]; intros acc; cbn [map moov_stable_from]; [reflexivity|].
    rewrite moov_cond_map. f_equal. rewrite <- IH. now rewrite map_app.
  Qed.
End MapStable.

Definition genc (keep : bool) (c : mbox) : bool * res (list N) := (is_trak_box c, raw_box keep c).
Definition cat_encs (l : list (bool * res (list N))) : res (list N) :=
  fold_right (fun e acc => rcat (snd e) acc) (Ok []) l.

Lemma raw_box_cont keep h cs :
  raw_box keep (MCont h cs) =
  (let encs := map (genc keep) cs in
   let encs' := if bytes_eqb (h_name h) n_moov then moov_order fst encs else encs in
   let all := rcat (Ok (enc_hdr (h_name h) (8 + sumN (map size_box cs)))) (cat_encs encs') in
   if bytes_eqb (h_name h) n_moof then
     match moof_pre cs with Ok _ => all | Err => Err | Panic => Panic | OutOfFuel => OutOfFuel end
   else all).
Proof. reflexivity. Qed.

Lemma pre_body_cat keep cs :
  fold_right (fun c acc => rcat (raw_box keep c) acc) (Ok []) cs = cat_encs (map (genc keep) cs).
Proof. induction cs as [|c t IH]; [reflexivity|]. cbn [fold_right map cat_encs genc snd]. now rewrite IH. Qed.

Lemma raw_box_pre keep h l r cs :
  raw_box keep (MPre h l r cs) =
  rcat (Ok (enc_hdr (leaf_name l) (size_leaf l + sumN (map size_box cs))))
       (rcat (body_leaf l (if keep then r else dflt_rsv l)) (cat_encs (map (genc keep) cs))).
Proof. cbn [raw_box]. now rewrite pre_body_cat. Qed.

(* a leaf prints and parses back (under the header the encoder writes) *)
Definition leaf_pp (d : hdr -> parser (leaf * rsvT)) (l : leaf) : Prop :=
  exists b, body_leaf l (dflt_rsv l) = Ok b /\ lenN b + 8 = size_leaf l
    /\ forall r2, d (hdr8 (leaf_name l) (size_leaf l)) (b ++ r2) = Ok ((l, dflt_rsv l), r2).
(* the prefix of stsd / dref / sample entries: the header's size also covers the children *)
Definition pre_pp (d : hdr -> parser (leaf * rsvT)) (l : leaf) : Prop :=
  exists b, body_leaf l (dflt_rsv l) = Ok b /\ lenN b + 8 = size_leaf l
    /\ forall sz r2, d (hdr8 (leaf_name l) sz) (b ++ r2) = Ok ((l, dflt_rsv l), r2).

Inductive wf : mbox -> Prop :=
| wf_leaf l d :
    lookup (leaf_name l) leaf_table = Some d -> lenN (leaf_name l) = 4 -> leaf_large l = false ->
    size_leaf l < 4294967296 -> leaf_pp d l -> wf (leafb l)
| wf_cont name cs :
    lenN name = 4 -> lookup name leaf_table = None -> lookup name pre_table = None -> is_cont name = true ->
    bytes_eqb name n_moof = false -> bytes_eqb name n_edts = false ->
    (bytes_eqb name n_moov = true -> moov_stable_from is_trak_box [] cs = true) ->
    8 + sumN (map size_box cs) < 4294967296 -> Forall wf cs -> wf (contb name cs)
| wf_unk name p :
    lenN name = 4 -> lookup name leaf_table = None -> lookup name pre_table = None -> is_cont name = false ->
    8 + lenN p < 4294967296 -> wf (unkb name p)
| wf_pre l d lk cs :
    lookup (leaf_name l) leaf_table = None -> lookup (leaf_name l) pre_table = Some (d, lk) ->
    lenN (leaf_name l) = 4 -> pre_pp d l ->
    match lk with
    | PStrict off => size_leaf l = off /\ pre_count_ok l (lenN cs) = true
    | PEntry start => size_leaf l = start
    end ->
    size_leaf l + sumN (map size_box cs) < 4294967296 -> Forall wf cs -> wf (preb l cs).

(* fuel that is enough for decode_box *)
Fixpoint maxl (l : list nat) : nat := match l with [] => O | x :: r => Nat.max x (maxl r) end.
Fixpoint fuel_of (t : mbox) : nat :=
  match t with
  | MLeaf _ _ _ => 1
  | MUnknown _ _ => 1
  | MCont _ cs => S (S (length cs + maxl (map fuel_of cs)))
  | MPre _ _ _ cs => S (S (length cs + maxl (map fuel_of cs)))
  end.
Definition fuel_cs (cs : list mbox) : nat := S (length cs + maxl (map fuel_of cs)).

(* the statement for one box *)
Definition pp_stmt (t : mbox) : Prop :=
  exists enc, raw_box false t = Ok enc /\ lenN enc = size_box t /\ 8 <= size_box t /\
    forall f r2, (fuel_of t <= f)%nat -> decode_box f (enc ++ r2) = Ok (t, r2).

Lemma cat_children cs : Forall pp_stmt cs ->
  exists enc, cat_encs (map (genc false) cs) = Ok enc /\ lenN enc = sumN (map size_box cs)
    /\ (forall f target pos r2, (fuel_cs cs <= f)%nat -> target = pos + sumN (map size_box cs) ->
          decode_children f target pos pos (enc ++ r2) = Ok (cs, r2))
    /\ (forall f target pos r2, (fuel_cs cs <= f)%nat -> target = pos + sumN (map size_box cs) ->
          decode_entries f target pos (enc ++ r2) = Ok (cs, r2)).
Proof.
  induction 1 as [|c cs Hc _ IH].
  - exists []. cbn [map cat_encs fold_right sumN]. split; [reflexivity|]. split; [reflexivity|]. split.
    + intros f target pos r2 Hf ->. destruct f as [|f]; [unfold fuel_cs in Hf; cbn in Hf; lia|].
      cbn [decode_children app]. rewrite N.add_0_r. rewrite N.ltb_irrefl, N.eqb_refl. reflexivity.
    + intros f target pos r2 Hf ->. destruct f as [|f]; [unfold fuel_cs in Hf; cbn in Hf; lia|].
      cbn [decode_entries app]. rewrite N.add_0_r. rewrite N.leb_refl. reflexivity.
  - destruct Hc as (e1 & He1 & Hl1 & Hs1 & Hd1). destruct IH as (e2 & He2 & Hl2 & Hc2 & Hn2).
    exists (e1 ++ e2). cbn [map cat_encs fold_right genc snd sumN]. fold (cat_encs (map (genc false) cs)).
    rewrite He1, He2. cbn [rcat]. split; [reflexivity|]. split; [rewrite lenN_app; lia|].
    assert (Hfu : forall f, (fuel_cs (c :: cs) <= f)%nat -> exists f', f = S f' /\ (fuel_of c <= f')%nat /\ (fuel_cs cs <= f')%nat).
    { intros f Hf. unfold fuel_cs in *. cbn [length map maxl] in Hf. destruct f as [|f']; [lia|]. exists f'. repeat split; lia. }
    split.
    + intros f target pos r2 Hf ->. destruct (Hfu f Hf) as (f' & -> & Hf1 & Hf2).
      cbn [decode_children].
      replace (pos + (size_box c + sumN (map size_box cs)) <? pos) with false by (symmetry; apply N.ltb_ge; lia).
      replace (pos =? pos + (size_box c + sumN (map size_box cs))) with false by (symmetry; apply N.eqb_neq; lia).
      rewrite <- app_assoc, (Hd1 f' (e2 ++ r2) Hf1).
      replace (lenN (e1 ++ e2 ++ r2) - lenN (e2 ++ r2)) with (size_box c) by (rewrite !lenN_app; lia).
      rewrite N.eqb_refl. cbn [negb].
      rewrite (Hc2 f' (pos + (size_box c + sumN (map size_box cs))) (pos + size_box c) r2 Hf2) by lia. reflexivity.
    + intros f target pos r2 Hf ->. destruct (Hfu f Hf) as (f' & -> & Hf1 & Hf2).
      cbn [decode_entries].
      replace (pos + (size_box c + sumN (map size_box cs)) <=? pos) with false by (symmetry; apply N.leb_gt; lia).
      rewrite <- app_assoc, (Hd1 f' (e2 ++ r2) Hf1).
      rewrite (Hn2 f' (pos + (size_box c + sumN (map size_box cs))) (pos + size_box c) r2 Hf2) by lia. reflexivity.
Qed.

Lemma moov_order_id cs : moov_stable_from is_trak_box [] cs = true ->
  moov_order fst (map (genc false) cs) = map (genc false) cs.
Proof.
  intros H. unfold moov_order.
  rewrite (moov_stable_id fst (map (genc false) cs) []); [reflexivity|].
  change (@nil (bool * res (list N))) with (map (genc false) []).
  rewrite (moov_stable_map is_trak_box (genc false) (fun a => eq_refl)). exact H.
Qed.

Lemma sizes_ge8 cs : Forall pp_stmt cs -> 0 <= sumN (map size_box cs).
Proof. intros _. lia. Qed.

Lemma maxl_in (g : mbox -> nat) c cs : In c cs -> (g c <= maxl (map g cs))%nat.
Proof.
  induction cs as [|x cs IH]; intros H; [destruct H|]. cbn [map maxl]. destruct H as [->|H]; [lia|].
  specialize (IH H). lia.
Qed.

Lemma hdr_check name sz (x : list N) : lenN x + 8 = sz ->
  forall r2, ((lenN (x ++ r2) + h_len (mkHdr name sz 8) <? h_size (mkHdr name sz 8)) && negb (bytes_eqb (h_name (mkHdr name sz 8)) n_mdat)) = false.
Proof.
  intros H r2. cbn [h_len h_size h_name]. rewrite lenN_app.
  replace (lenN x + lenN r2 + 8 <? sz) with false by (symmetry; apply N.ltb_ge; lia). reflexivity.
Qed.

Lemma pp_box_n n : forall t, (fuel_of t <= n)%nat -> wf t -> pp_stmt t.
Proof.
  induction n as [|n IHn]; intros t Hn Hw.
  { destruct t; cbn [fuel_of] in Hn; lia. }
  assert (Hkids : forall cs, (S (S (length cs + maxl (map fuel_of cs))) <= S n)%nat -> Forall wf cs -> Forall pp_stmt cs).
  { intros cs Hle Hf. apply Forall_forall. intros c Hin. apply IHn.
    - pose proof (maxl_in fuel_of c cs Hin). lia.
    - exact (proj1 (Forall_forall _ _) Hf c Hin). }
  destruct Hw as [l d Hlk Hnm Hlg Hsz (b & Hb & Hlen & Hpp)
                 |name cs Hnm Hl1 Hl2 Hct Hmoof Hedts Hmoov Hsz Hcs
                 |name p Hnm Hl1 Hl2 Hct Hsz
                 |l d lk cs Hl1 Hl2 Hnm (b & Hb & Hlen & Hpp) Hlk Hsz Hcs].
  - (* leaf *)
    exists (enc_hdr (leaf_name l) (size_leaf l) ++ b). unfold leafb. cbn [raw_box size_box].
    unfold raw_leaf, leaf_hdr. rewrite Hb, Hlg. split; [reflexivity|].
    split; [rewrite lenN_app, lenN_enc_hdr by exact Hnm; lia|].
    split; [lia|].
    intros f r2 Hf. destruct f as [|f]; [cbn [fuel_of] in Hf; lia|].
    cbn [decode_box]. rewrite <- app_assoc, header_rt by (try assumption; lia).
    rewrite (hdr_check _ _ b Hlen r2). cbn [h_name]. rewrite Hlk. unfold hdr8 in Hpp. rewrite Hpp. reflexivity.
  - (* container *)
    cbn [fuel_of] in Hn. pose proof (Hkids cs Hn Hcs) as Hk.
    destruct (cat_children cs Hk) as (enc & He & Hle & Hdc & _).
    exists (enc_hdr name (8 + sumN (map size_box cs)) ++ enc). unfold contb.
    rewrite raw_box_cont. cbn [h_name hdr8 size_box]. rewrite Hmoof.
    assert (Hord : (if bytes_eqb name n_moov then moov_order fst (map (genc false) cs) else map (genc false) cs) = map (genc false) cs).
    { destruct (bytes_eqb name n_moov) eqn:Em; [apply moov_order_id; apply Hmoov; reflexivity|reflexivity]. }
    cbv zeta. rewrite Hord, He. cbn [rcat]. split; [reflexivity|].
    split; [rewrite lenN_app, lenN_enc_hdr by exact Hnm; lia|].
    split; [lia|].
    intros f r2 Hf. destruct f as [|f]; [cbn [fuel_of] in Hf; lia|].
    cbn [decode_box]. rewrite <- app_assoc, header_rt by (try assumption; lia).
    rewrite (hdr_check _ _ enc) by lia. cbn [h_name h_size]. rewrite Hl1, Hl2, Hct.
    replace (8 + sumN (map size_box cs) - 8) with (0 + sumN (map size_box cs)) by lia.
    rewrite (Hdc f (0 + sumN (map size_box cs)) 0 r2) by (try reflexivity; unfold fuel_cs; cbn [fuel_of] in Hf; lia).
    rewrite Hedts. cbn [andb]. reflexivity.
  - (* unknown *)
    exists (enc_hdr name (8 + lenN p) ++ p). unfold unkb, hdr8. cbn [raw_box size_box h_len h_name h_size].
    change (8 <? 8) with false. cbv iota. split; [reflexivity|].
    split; [rewrite lenN_app, lenN_enc_hdr by exact Hnm; lia|].
    split; [lia|].
    intros f r2 Hf. destruct f as [|f]; [cbn [fuel_of] in Hf; lia|].
    cbn [decode_box]. rewrite <- app_assoc, header_rt by (try assumption; lia).
    rewrite (hdr_check _ _ p) by lia. cbn [h_name]. rewrite Hl1, Hl2, Hct.
    unfold payload_len. cbn [h_size h_len]. replace (8 + lenN p - 8) with (lenN p) by lia.
    rewrite rdB_app by reflexivity. reflexivity.
  - (* prefixed container *)
    cbn [fuel_of] in Hn. pose proof (Hkids cs Hn Hcs) as Hk.
    destruct (cat_children cs Hk) as (enc & He & Hle & Hdc & Hde).
    exists (enc_hdr (leaf_name l) (size_leaf l + sumN (map size_box cs)) ++ b ++ enc). unfold preb.
    rewrite raw_box_pre. rewrite Hb, He. cbn [rcat size_box]. split; [reflexivity|].
    split; [rewrite !lenN_app, lenN_enc_hdr by exact Hnm; lia|].
    split; [lia|].
    intros f r2 Hf. destruct f as [|f]; [cbn [fuel_of] in Hf; lia|].
    cbn [decode_box]. rewrite <- !app_assoc, header_rt by (try assumption; lia).
    rewrite (app_assoc b enc r2), (hdr_check _ _ (b ++ enc)) by (rewrite lenN_app; lia).
    rewrite <- app_assoc. cbn [h_name h_size]. rewrite Hl1, Hl2. unfold hdr8 in Hpp. rewrite Hpp.
    destruct lk as [off|start].
    + destruct Hlk as [Hoff Hcnt].
      replace (size_leaf l + sumN (map size_box cs) <? off) with false by (symmetry; apply N.ltb_ge; lia).
      replace (size_leaf l + sumN (map size_box cs) - off) with (0 + sumN (map size_box cs)) by lia.
      rewrite (Hdc f (0 + sumN (map size_box cs)) 0 r2) by (try reflexivity; unfold fuel_cs; cbn [fuel_of] in Hf; lia).
      rewrite Hcnt. reflexivity.
    + rewrite (Hde f (size_leaf l + sumN (map size_box cs)) start r2) by (try (subst start; reflexivity); unfold fuel_cs; cbn [fuel_of] in Hf; lia).
      reflexivity.
Qed.

Lemma pp_box t : wf t -> pp_stmt t.
Proof. intros H. exact (pp_box_n (fuel_of t) t (Nat.le_refl _) H). Qed.
