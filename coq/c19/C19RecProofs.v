(* C19RecProofs.v — lemmas about the decoder configuration record codecs of C19RecModel.v:
   Size() = number of bytes written (all records), decode (encode r) = canonical r (all in-range records). *)
From V.lib Require Import Base.
From V.c19 Require Import C19Model C19RecModel.

Lemma be16_val x : x < 65536 -> (u16 x / 256) * 256 + x mod 256 = x.
Proof. unfold u16. intros H. lia. Qed.

Lemma be16_len x : length (be16 x) = 2%nat.
Proof. reflexivity. Qed.

(* a field b of n bits below a: the "or" is a sum, and both parts can be read off *)
Lemma lor_fields a b n : b < 2 ^ n ->
  N.lor (a * 2 ^ n) b = a * 2 ^ n + b /\ N.lor (a * 2 ^ n) b mod 2 ^ n = b /\ N.lor (a * 2 ^ n) b / 2 ^ n = a.
Proof.
  intros H. pose proof (pow2_pos n) as Hp. rewrite lor_shifted_add by exact H. split; [reflexivity|]. split.
  - rewrite N.add_comm, N.mod_add by lia. apply N.mod_small. exact H.
  - rewrite N.add_comm, N.div_add by lia. rewrite N.div_small by exact H. reflexivity.
Qed.

Lemma land3 c : c < 4 -> N.land (N.lor 252 c) 3 = c.
Proof. intros H. change 3 with (N.ones 2). rewrite N.land_ones. exact (proj1 (proj2 (lor_fields 63 c 2 H))). Qed.

Lemma land7 c : c < 8 -> N.land (N.lor 248 c) 7 = c.
Proof. intros H. change 7 with (N.ones 3). rewrite N.land_ones. exact (proj1 (proj2 (lor_fields 31 c 3 H))). Qed.

Lemma count5 n : n < 32 -> N.land (N.lor (n mod 256) 224) 31 = n.
Proof.
  intros H. rewrite N.mod_small, N.lor_comm by lia. change 31 with (N.ones 5). rewrite N.land_ones.
  exact (proj1 (proj2 (lor_fields 7 n 5 H))).
Qed.

(* hvcC byte 1: general_profile_space (2) | general_tier_flag (1) | general_profile_idc (5) *)
Lemma hb1_val space (tier : bool) pidc : space < 4 -> pidc < 32 ->
  N.lor (N.lor (u8 (space * 64)) (if tier then 32 else 0)) pidc = space * 64 + (if tier then 32 else 0) + pidc.
Proof.
  intros Hs Hp. unfold u8. rewrite N.mod_small by lia. change (space * 64) with (space * 2 ^ 6).
  rewrite (proj1 (lor_fields space (if tier then 32 else 0) 6 ltac:(destruct tier; reflexivity))).
  replace (space * 2 ^ 6 + (if tier then 32 else 0)) with ((space * 2 + (if tier then 1 else 0)) * 2 ^ 5)
    by (change (2 ^ 6) with 64; change (2 ^ 5) with 32; destruct tier; lia).
  rewrite (proj1 (lor_fields _ pidc 5 Hp)). change (2 ^ 5) with 32. destruct tier; lia.
Qed.

(* hvcC byte 21: constantFrameRate (2) | numTemporalLayers (3) | temporalIdNested (1) | lengthSizeMinusOne (2) = 3 *)
Lemma hb21_val cfr ntl tin : cfr < 4 -> ntl < 8 -> tin < 2 ->
  N.lor (N.lor (N.lor (u8 (cfr * 64)) (u8 (ntl * 8))) (u8 (tin * 4))) 3 = cfr * 64 + ntl * 8 + tin * 4 + 3.
Proof.
  intros H1 H2 H3. unfold u8. rewrite !N.mod_small by lia. change (cfr * 64) with (cfr * 2 ^ 6).
  rewrite (proj1 (lor_fields cfr (ntl * 8) 6 ltac:(change (2 ^ 6) with 64; lia))).
  replace (cfr * 2 ^ 6 + ntl * 8) with ((cfr * 8 + ntl) * 2 ^ 3) by (change (2 ^ 6) with 64; change (2 ^ 3) with 8; lia).
  rewrite (proj1 (lor_fields _ (tin * 4) 3 ltac:(change (2 ^ 3) with 8; lia))).
  replace ((cfr * 8 + ntl) * 2 ^ 3 + tin * 4) with (((cfr * 8 + ntl) * 2 + tin) * 2 ^ 2)
    by (change (2 ^ 3) with 8; change (2 ^ 2) with 4; lia).
  rewrite (proj1 (lor_fields _ 3 2 eq_refl)). change (2 ^ 2) with 4. lia.
Qed.

(* ... and as DecodeHEVCDecConfRec reads them, by shift and mask *)
Lemma bits_at x k m n : m = N.ones n -> N.land (N.shiftr x k) m = x / 2 ^ k mod 2 ^ n.
Proof. intros ->. rewrite shiftr_div. apply N.land_ones. Qed.

Lemma hb1_read space (tier : bool) pidc : space < 4 -> pidc < 32 ->
  let b := N.lor (N.lor (u8 (space * 64)) (if tier then 32 else 0)) pidc in
  N.land (N.shiftr b 6) 3 = space /\ (N.land (N.shiftr b 5) 1 =? 1) = tier /\ N.land b 31 = pidc.
Proof.
  intros Hs Hp b. subst b. rewrite hb1_val by assumption.
  rewrite (bits_at _ 6 3 2 eq_refl), (bits_at _ 5 1 1 eq_refl). change 31 with (N.ones 5). rewrite N.land_ones.
  change (2 ^ 6) with 64. change (2 ^ 5) with 32. change (2 ^ 2) with 4. change (2 ^ 1) with 2.
  destruct tier; repeat split; lia.
Qed.

Lemma hb21_read cfr ntl tin : cfr < 4 -> ntl < 8 -> tin < 2 ->
  let b := N.lor (N.lor (N.lor (u8 (cfr * 64)) (u8 (ntl * 8))) (u8 (tin * 4))) 3 in
  N.land b 3 = 3 /\ N.land (N.shiftr b 6) 3 = cfr /\ N.land (N.shiftr b 3) 7 = ntl /\ N.land (N.shiftr b 2) 1 = tin.
Proof.
  intros H1 H2 H3 b. subst b. rewrite hb21_val by assumption.
  rewrite (bits_at _ 6 3 2 eq_refl), (bits_at _ 3 7 3 eq_refl), (bits_at _ 2 1 1 eq_refl).
  change 3 with (N.ones 2) at 2. rewrite N.land_ones.
  change (2 ^ 6) with 64. change (2 ^ 3) with 8. change (2 ^ 2) with 4. change (2 ^ 1) with 2.
  repeat split; lia.
Qed.

Lemma rd_nalus_wr l : forall rest,
  forallb nalu_ok l = true -> rd_nalus (length l) (flat_map wr_nalu l ++ rest) = Some (l, rest).
Proof.
  induction l as [|a l IH]; intros rest H; [reflexivity|].
  cbn [forallb] in H. apply andb_true_iff in H. destruct H as [Ha Hl].
  unfold nalu_ok in Ha. apply N.ltb_lt in Ha.
  cbn [length flat_map rd_nalus]. unfold wr_nalu at 1. unfold be16. cbn [app].
  rewrite be16_val by exact Ha. unfold lenN. rewrite Nat2N.id.
  rewrite <- !app_assoc.
  assert (E1 : Nat.ltb (length (a ++ flat_map wr_nalu l ++ rest)) (length a) = false).
  { apply Nat.ltb_ge. rewrite app_length. lia. }
  rewrite E1.
  rewrite skipn_app, skipn_all, Nat.sub_diag. cbn [skipn app].
  rewrite firstn_app, firstn_all, Nat.sub_diag. cbn [firstn]. rewrite app_nil_r.
  rewrite IH by exact Hl. reflexivity.
Qed.

Lemma wr_nalus_len l : lenN (flat_map wr_nalu l) = nalus_size l.
Proof.
  unfold nalus_size. induction l as [|a l IH]; [reflexivity|].
  cbn [flat_map map sumN]. rewrite lenN_app, IH. unfold wr_nalu. rewrite lenN_app. unfold lenN at 1. cbn [be16 length]. lia.
Qed.

(* Size() is the number of bytes EncodeSW writes: for EVERY record *)
Lemma avcrec_size_ok r : lenN (avcrec_encode r) = avcrec_size r.
Proof.
  unfold avcrec_encode, avcrec_size, avc_has_trailing.
  rewrite !lenN_app, !wr_nalus_len.
  destruct (avc_plain (ar_profile r)); cbn [negb andb]; [unfold lenN; cbn [length]; lia|].
  destruct (ar_notrail r); cbn [negb]; unfold lenN; cbn [length]; lia.
Qed.

Ltac split_ok H :=
  repeat (apply andb_true_iff in H; let H' := fresh "K" in destruct H as [H H']);
  repeat match goal with h : (_ <? _) = true |- _ => apply N.ltb_lt in h end;
  repeat match goal with h : (_ =? _) = true |- _ => apply N.eqb_eq in h end.

Lemma avcrec_roundtrip r : avcrec_ok r = true -> avcrec_decode (avcrec_encode r) = Ok (avcrec_canon r).
Proof.
  unfold avcrec_ok. intros H.
  destruct r as [p c l sps pps cf bl bc ne nt]. cbn [ar_profile ar_compat ar_level ar_sps ar_pps ar_chroma ar_bdl ar_bdc ar_nspsext ar_notrail] in *.
  split_ok H. subst ne.
  unfold avcrec_encode, avcrec_decode, avcrec_canon.
  cbn [ar_profile ar_compat ar_level ar_sps ar_pps ar_chroma ar_bdl ar_bdc ar_nspsext ar_notrail app].
  change (1 =? 1) with true. change (N.land 255 3 =? 3) with true. cbn [negb].
  rewrite count5 by assumption. unfold lenN at 1. rewrite Nat2N.id.
  rewrite rd_nalus_wr by assumption.
  cbn [app]. rewrite N.mod_small by assumption. unfold lenN at 1. rewrite Nat2N.id.
  rewrite rd_nalus_wr by assumption.
  destruct (avc_plain p); [reflexivity|].
  destruct nt; [reflexivity|].
  cbn [N.eqb]. rewrite land3, !land7 by assumption. reflexivity.
Qed.

(* a record with trailing info (every profile except 66/77/88, NoTrailingInfo false) decodes to ITSELF *)
Lemma avcrec_roundtrip_exact r :
  avcrec_ok r = true -> avc_has_trailing r = true -> avcrec_decode (avcrec_encode r) = Ok r.
Proof.
  intros H T. rewrite avcrec_roundtrip by exact H. unfold avcrec_canon.
  unfold avc_has_trailing in T. apply andb_true_iff in T. destruct T as [T1 T2].
  apply negb_true_iff in T1, T2. rewrite T1, T2. reflexivity.
Qed.

Lemma rd_arrays_wr l : forall rest,
  forallb array_ok l = true -> rd_arrays (length l) (flat_map wr_array l ++ rest) = Some (l, rest).
Proof.
  induction l as [|[ct nalus] l IH]; intros rest H; [reflexivity|].
  cbn [forallb] in H. apply andb_true_iff in H. destruct H as [Ha Hl].
  unfold array_ok in Ha. cbn [snd] in Ha. apply andb_true_iff in Ha. destruct Ha as [Hn Hf]. apply N.ltb_lt in Hn.
  cbn [length flat_map rd_arrays]. unfold wr_array at 1. cbn [fst snd]. unfold be16. cbn [app].
  rewrite be16_val by exact Hn. unfold lenN. rewrite Nat2N.id.
  rewrite <- !app_assoc. rewrite rd_nalus_wr by exact Hf.
  rewrite IH by exact Hl. reflexivity.
Qed.

Lemma wr_arrays_len l : lenN (flat_map wr_array l) = sumN (map (fun a => 3 + nalus_size (snd a)) l).
Proof.
  induction l as [|a l IH]; [reflexivity|].
  cbn [flat_map map sumN]. rewrite lenN_app, IH. unfold wr_array. rewrite !lenN_app, wr_nalus_len.
  unfold lenN at 1 2. cbn [be16 length]. lia.
Qed.

Lemma hvcrec_size_ok r : lenN (hvcrec_encode r) = hvcrec_size r.
Proof.
  unfold hvcrec_encode, hvcrec_size. rewrite !lenN_app, wr_arrays_len. unfold lenN. cbn [be16 be32 be48 length app]. lia.
Qed.

(* the four bytes of be32 x hold x mod 2^32, whatever x *)
Lemma be32_u32 x :
  ((u32 x / 16777216 * 256 + (x / 65536) mod 256) * 256 + (x / 256) mod 256) * 256 + x mod 256 = u32 x.
Proof. unfold u32. lia. Qed.

Lemma be32_val x : x < 4294967296 ->
  ((u32 x / 16777216 * 256 + (x / 65536) mod 256) * 256 + (x / 256) mod 256) * 256 + x mod 256 = x.
Proof. intros H. rewrite be32_u32. apply N.mod_small. exact H. Qed.

(* be48 x = be16 (x / 2^32) ++ be32 x: the value read is (x / 2^32) * 2^32 + x mod 2^32 *)
Lemma be48_val x : x < 281474976710656 ->
  ((((u16 (x / 4294967296) / 256 * 256 + (x / 4294967296) mod 256) * 256 + u32 x / 16777216) * 256
    + (x / 65536) mod 256) * 65536) + ((x / 256) mod 256 * 256 + x mod 256) = x.
Proof.
  intros H. set (hi := x / 4294967296).
  assert (Hhi : hi < 65536) by (apply N.div_lt_upper_bound; [discriminate|exact H]).
  transitivity ((u16 hi / 256 * 256 + hi mod 256) * 4294967296
                + (((u32 x / 16777216 * 256 + (x / 65536) mod 256) * 256 + (x / 256) mod 256) * 256 + x mod 256)); [ring|].
  rewrite be16_val by exact Hhi. rewrite be32_u32. unfold u32, hi.
  rewrite N.mul_comm. symmetry. apply N.div_mod. discriminate.
Qed.

Lemma minspat_val m : m < 4096 ->
  N.land (u16 (N.lor 61440 m) / 256 * 256 + (N.lor 61440 m) mod 256) 4095 = m.
Proof.
  intros H. change 61440 with (15 * 2 ^ 12). rewrite lor_shifted_add by (change (2 ^ 12) with 4096; lia).
  change (15 * 2 ^ 12) with 61440. rewrite be16_val by lia.
  change 4095 with (N.ones 12). rewrite N.land_ones. change (2 ^ 12) with 4096. lia.
Qed.

Lemma hvcrec_roundtrip r : hvcrec_ok r = true -> hvcrec_decode (hvcrec_encode r) = Ok r.
Proof.
  unfold hvcrec_ok. intros H.
  destruct r as [v space tier pidc compat constr lvl ms par chroma bdl bdc avg cfr ntl tin lsm arrays].
  cbn [hr_version hr_space hr_tier hr_pidc hr_compat hr_constraint hr_level hr_minspat hr_par hr_chroma hr_bdl hr_bdc
       hr_avgfr hr_cfr hr_ntl hr_tin hr_lsm1 hr_arrays] in *.
  split_ok H. subst v lsm.
  unfold hvcrec_encode, hvcrec_decode.
  cbn [hr_version hr_space hr_tier hr_pidc hr_compat hr_constraint hr_level hr_minspat hr_par hr_chroma hr_bdl hr_bdc
       hr_avgfr hr_cfr hr_ntl hr_tin hr_lsm1 hr_arrays app be16 be32 be48].
  change (1 =? 1) with true. cbn [negb].
  destruct (hb1_read space tier pidc ltac:(assumption) ltac:(assumption)) as (S1 & T1 & P1).
  destruct (hb21_read cfr ntl tin ltac:(assumption) ltac:(assumption) ltac:(assumption)) as (B21 & C1 & N1 & I1).
  cbv zeta in *.
  rewrite B21. change (3 =? 3) with true. cbn [negb].
  rewrite N.mod_small by assumption. unfold lenN at 1. rewrite Nat2N.id.
  rewrite <- (app_nil_r (flat_map wr_array arrays)). rewrite rd_arrays_wr by assumption.
  rewrite be32_val, be48_val, minspat_val, be16_val by assumption.
  rewrite !land3, !land7, S1, T1, P1, C1, N1, I1 by assumption.
  reflexivity.
Qed.
