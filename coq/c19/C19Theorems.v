(* C19Theorems.v — the property theorems of C19 and nothing else.  Each is an instance of a lemma of the proof files
   or a few lines that put such lemmas together, and is followed by Print Assumptions (audited by ./check on every run). *)
From Coq Require Import String Ascii.
From V.lib Require Import Base.
From V.c19 Require Import C19Model C19Spec C19InvProofs C19TrackProofs C19DescProofs C19ElngProofs C19ScopeProofs C19Witness.
From V.c19 Require Import C19RecModel C19RecProofs C19RecLinkProofs.
From V.c19 Require Import C19BoxCodec C19BoxModel.
From V.c19 Require Import C19TreeModel C19TreeProofs C19TreeScopeProofs C19LeafProofs C19PrintParseProofs C19LeafPPProofs C19RoundtripProofs C19ArgsProofs.
From V.c19 Require Import C19FragModel C19FragProofs C19DimsProofs C19EsdsProofs C19AacProofs C19AacHistProofs.
From V.c18 Require C18Model C18EntryModel.
From V.c15 Require C15Model C15Spec C15HevcModel C15HevcSpec C15Examples C15HevcExamples.
From V.c05 Require C05Model C05FragModel C05HistProofs C05GhostProofs C05ReadProofs C05RoundProofs C05SingleProofs C05Theorems.
From V.c19 Require Import C19Ac3Model.
From V.c19 Require C19Ac3Proofs.


(* For EVERY op sequence (any arguments, including calls that return an error or panic; the history stops
   at the first panic), every SPS parser: in the final state the moov children are mvhd, mvex and then the
   traks, contiguous and in Traks order; track ids are exactly 1..n in order; there is one trex per track
   with the same id in the same order; the next-track id is larger than every track id.
   The bound is the uint32 track id: fewer than 2^32-1 calls. *)
Theorem C19_inv :
  forall (avc_parse : avc_parser) (hevc_parse : hevc_parser) (ops : list op),
    N.of_nat (length ops) < 4294967295 ->
    let s := snd (run avc_parse hevc_parse ops) in inv_struct s /\ next_above s.
Proof. exact inv_all. Qed.
Print Assumptions C19_inv.

(* what decoding a fragment against the init relies on: track ids are unique, trex ids are unique, and
   MvexBox.GetTrex(id) finds a trex for every track of the init, after any history *)
Theorem C19_trex_lookup :
  forall (avc_parse : avc_parser) (hevc_parse : hevc_parser) (ops : list op),
    N.of_nat (length ops) < 4294967295 ->
    let s := snd (run avc_parse hevc_parse ops) in
    NoDup (map tk_id (traks s)) /\ NoDup (trexs s)
    /\ (forall t, In t (traks s) -> In (tk_id t) (trexs s))
    /\ length (trexs s) = length (traks s).
Proof. exact trex_lookup. Qed.
Print Assumptions C19_trex_lookup.

(* In-scope histories (media types of the specification table, descriptor calls on existing tracks with a
   non-empty SPS list / fscod < 3 / acmod < 8 / at least one EC-3 substream): no call panics, every call is
   executed, the next-track id is n+1 (2 while there is no track), and track i has id i+1, the supplied timescale,
   volume 1.0 only for audio, the handler type and media header box of the table, and the language rule
   (3 bytes: packed into mdhd, no elng; otherwise mdhd "und" and elng carrying the tag verbatim) --
   whatever descriptor calls came in between. *)
Theorem C19_tracks :
  forall (avc_parse : avc_parser) (hevc_parse : hevc_parser) (ops : list op),
    N.of_nat (length ops) < 4294967295 ->
    ops_valid 0 ops = true ->
    let '(ocs, s) := run avc_parse hevc_parse ops in
    ~ In OPanic ocs
    /\ length ocs = length ops
    /\ map Some (map core (traks s)) = spec_cores 0 (adds_of ops)
    /\ next_spec s.
Proof.
  intros avc_parse hevc_parse ops Hb Hv. destruct (empty_init_inv) as [H1 H2].
  exact (run_from_valid avc_parse hevc_parse ops empty_init Hb H1 H2 eq_refl Hv).
Qed.
Print Assumptions C19_tracks.

(* three lower-case letters packed into mdhd read back (GetLanguage) as the same letters *)
Theorem C19_language_readback :
  forall a b c, lower a = true -> lower b = true -> lower c = true ->
    spec_mdhd_lang [a; b; c] = pack3 a b c /\ get_language (pack3 a b c) = [a; b; c].
Proof. intros a b c Ha Hb Hc. split; [reflexivity|exact (get_language_pack3 a b c Ha Hb Hc)]. Qed.
Print Assumptions C19_language_readback.

(* SetHEVCDescriptor uses the result of CreateHvcC before looking at err; that nil dereference is not
   reachable: with a non-empty SPS list the call never panics (the SPS was parsed a few lines earlier) *)
Theorem C19_hevc_nil_unreachable :
  forall (hevc_parse : hevc_parser) t name vpss sps0 spss ppss seis incl,
    fst (set_hevc hevc_parse t name vpss (sps0 :: spss) ppss seis incl) <> OPanic.
Proof.
  intros hevc_parse t name vpss sps0 spss ppss seis incl.
  exact (set_desc_no_panic (fun _ => None) hevc_parse t (DHevc name vpss (sps0 :: spss) ppss seis incl) eq_refl).
Qed.
Print Assumptions C19_hevc_nil_unreachable.

(* every sample entry of every track, after any history, has data reference index 1 (the one url entry of dref) *)
Theorem C19_dref :
  forall (avc_parse : avc_parser) (hevc_parse : hevc_parser) (ops : list op),
    entries_dref_ok (snd (run avc_parse hevc_parse ops)).
Proof.
  intros avc_parse hevc_parse ops.
  apply (entries_run avc_parse hevc_parse (fun _ => True)); [|apply Forall_forall; intros; exact I].
  intros k t d t' e _ Hd He. pose proof (set_desc_entries avc_parse hevc_parse t d) as H. rewrite Hd in H.
  destruct H as (e' & He' & Hdr). rewrite He' in He. apply app_inv_head in He. injection He as <-. exact Hdr.
Qed.
Print Assumptions C19_dref.

(* a call adds exactly one sample entry when it succeeds and none otherwise *)
Theorem C19_descriptor_one_entry :
  forall (avc_parse : avc_parser) (hevc_parse : hevc_parser) t d,
    let '(oc, t') := set_desc avc_parse hevc_parse t d in
    match oc with
    | OOk => exists e, sd_entries t' = sd_entries t ++ [e] /\ se_dref e = 1
    | _ => sd_entries t' = sd_entries t
    end.
Proof. exact set_desc_entries. Qed.
Print Assumptions C19_descriptor_one_entry.

(* SetAVCDescriptor: entry name as requested, width/height = the parser's (16 bit), tkhd = 16.16 fixed point,
   avcC carries the SPS's profile/compatibility/level, chroma format and bit depths (which fit their 2-/3-bit fields)
   and exactly the supplied parameter sets (none if not included) *)
Theorem C19_descriptor_avc :
  forall (avc_parse : avc_parser) t name spss ppss incl t',
    set_avc avc_parse t name spss ppss incl = (OOk, t') ->
    exists sps0 rest w h p c l cf bl bc,
      spss = sps0 :: rest /\ avc_parse sps0 = Some (w, h, (p, c, l, (cf, bl, bc)))
      /\ cf <= 3 /\ bl <= 7 /\ bc <= 7
      /\ (name = BS "avc1" \/ name = BS "avc3")
      /\ sd_entries t' = sd_entries t ++
           [mkSE name 1 (w mod 65536) (h mod 65536) 0
                 (CfgAvcC (mkAvcC p c l (if incl then spss else []) (if incl then ppss else []) cf bl bc))]
      /\ tk_width t' = (w * 65536) mod 4294967296 /\ tk_height t' = (h * 65536) mod 4294967296
      /\ core t' = core t.
Proof. exact set_avc_ok. Qed.
Print Assumptions C19_descriptor_avc.

(* SetHEVCDescriptor: hvcC carries the parser's configuration values and the VPS/SPS/PPS(/SEI) arrays with
   NAL unit types 32/33/34(/39), the complete bit for hvc1, exactly the supplied NAL units *)
Theorem C19_descriptor_hevc :
  forall (hevc_parse : hevc_parser) t name vpss spss ppss seis incl t',
    set_hevc hevc_parse t name vpss spss ppss seis incl = (OOk, t') ->
    exists sps0 rest w h cfg,
      spss = sps0 :: rest /\ hevc_parse sps0 = Some (w, h, cfg)
      /\ (name = BS "hvc1" \/ name = BS "hev1")
      /\ sd_entries t' = sd_entries t ++
           [mkSE name 1 (w mod 65536) (h mod 65536) 0
                 (CfgHvcC (mkHvcC cfg (spec_hevc_arrays name vpss spss ppss seis incl)))]
      /\ tk_width t' = (w * 65536) mod 4294967296 /\ tk_height t' = (h * 65536) mod 4294967296
      /\ core t' = core t.
Proof. exact set_hevc_ok. Qed.
Print Assumptions C19_descriptor_hevc.

(* The dimensions, stated without reference to what a parser answers: with C15's models of avc.ParseSPSNALUnit /
   hevc.ParseSPSNALUnit + ImageSize as the parsers (c15_avc_parser, c15_hevc_parser: coq/c15, read-only) and C15's SPS
   theorems, for EVERY valid field assignment v of the SPS syntax (all profiles, chroma formats, field coding, cropping,
   any VUI incl. any sample aspect ratio) the entry built from the NAL unit of v has exactly the CROPPED picture size of
   v -- C15Spec.display_width/height: PicWidthInMbs*16 - CropUnitX*(left+right), (2-frame_mbs_only)*PicHeightInMapUnits*16
   - CropUnitY*(top+bottom), which do not look at the VUI -- in its 16-bit fields, and tkhd holds it in 16.16 fixed point.
   A SetAVCDescriptor scaling the width by the sample aspect ratio falsifies this on every SPS with a non-square SAR. *)
Theorem C19_descriptor_avc_dims :
  forall v t name rest ppss incl t',
    C15Spec.sps_valid v = true ->
    set_avc c15_avc_parser t name (C15Spec.nalu_sps v :: rest) ppss incl = (OOk, t') ->
    exists e, sd_entries t' = sd_entries t ++ [e] /\ se_name e = name
      /\ se_a e = C15Spec.display_width v mod 65536 /\ se_b e = C15Spec.display_height v mod 65536
      /\ tk_width t' = (C15Spec.display_width v * 65536) mod 4294967296
      /\ tk_height t' = (C15Spec.display_height v * 65536) mod 4294967296.
Proof.
  intros v t name rest ppss incl t' Hv H.
  destruct (set_avc_ok c15_avc_parser t name _ ppss incl t' H)
    as (sps0 & rest' & w & h & p & c & l & cf & bl & bc & Hs & Hp & _ & _ & _ & _ & He & Hw & Hh & _).
  injection Hs as <- <-.
  destruct (c15_avc_parser_valid v Hv) as (p' & c' & l' & x' & Hp'). rewrite Hp' in Hp. injection Hp as <- <- _ _ _ _.
  eexists. split; [exact He|]. cbn [se_name se_a se_b]. repeat split; assumption.
Qed.
Print Assumptions C19_descriptor_avc_dims.

(* HEVC: pic_width/height_in_luma_samples minus SubWidthC/SubHeightC times the conformance-window offsets *)
Theorem C19_descriptor_hevc_dims :
  forall v t name vpss rest ppss seis incl t',
    C15HevcSpec.hsps_valid v = true ->
    set_hevc c15_hevc_parser t name vpss (C15HevcSpec.hnalu_sps v :: rest) ppss seis incl = (OOk, t') ->
    exists e, sd_entries t' = sd_entries t ++ [e] /\ se_name e = name
      /\ se_a e = C15HevcSpec.h_display_width v mod 65536 /\ se_b e = C15HevcSpec.h_display_height v mod 65536
      /\ tk_width t' = (C15HevcSpec.h_display_width v * 65536) mod 4294967296
      /\ tk_height t' = (C15HevcSpec.h_display_height v * 65536) mod 4294967296.
Proof.
  intros v t name vpss rest ppss seis incl t' Hv H.
  destruct (set_hevc_ok c15_hevc_parser t name vpss _ ppss seis incl t' H)
    as (sps0 & rest' & w & h & cfg & Hs & Hp & _ & He & Hw & Hh & _).
  injection Hs as <- <-.
  destruct (c15_hevc_parser_valid v Hv) as (cfg' & Hp'). rewrite Hp' in Hp. injection Hp as <- <- _.
  eexists. split; [exact He|]. cbn [se_name se_a se_b]. repeat split; assumption.
Qed.
Print Assumptions C19_descriptor_hevc_dims.

(* SetAACDescriptor: the AudioSpecificConfig in esds reads back (independent bit reader) as the supplied object
   type and frequency, 2 channels (1 for HE-AAC v2), extension frequency 2f and base type AAC-LC for HE-AAC:
   complete finite domain {AAC-LC, HE-AAC v1, v2} x {13 table frequencies, 44000, 8001, 65535, 1, 2^24-1} *)
Theorem C19_descriptor_aac_config :
  forall o f, In (o, f) aac_domain ->
    let chan := if o =? 29 then 1 else 2 in
    let ext := if (o =? 5) || (o =? 29) then 2 * f else 0 in
    exists asc, asc_encode o f chan ext = Some asc /\ asc_read asc = (o, f, chan, ext mod 16777216, 2).
Proof.
  intros o f Hin. pose proof aac_domain_ok as H. rewrite forallb_forall in H. specialize (H _ Hin).
  unfold aac_case_ok in H. cbv zeta.
  destruct (asc_encode o f _ _) as [asc|]; [|discriminate].
  exists asc. split; [reflexivity|].
  destruct (asc_read asc) as [[[[ot f'] ch] ef] bt].
  repeat (apply andb_prop in H; destruct H as [H ?]).
  repeat match goal with E : (_ =? _) = true |- _ => apply N.eqb_eq in E end. subst. reflexivity.
Qed.
Print Assumptions C19_descriptor_aac_config.

Theorem C19_descriptor_aac :
  forall t o f t',
    set_aac t o f = (OOk, t') ->
    let chan := if o =? 29 then 1 else 2 in
    let ext := if (o =? 5) || (o =? 29) then 2 * f else 0 in
    exists asc, asc_encode o f chan ext = Some asc
      /\ sd_entries t' = sd_entries t ++ [mkSE (BS "mp4a") 1 chan 16 (f mod 65536) (CfgEsds asc)]
      /\ core t' = core t.
Proof. exact set_aac_ok. Qed.
Print Assumptions C19_descriptor_aac.

(* C19_descriptor_aac through the TYPED tree and C18's configuration codec (coq/c18, read-only), general in the frequency
   (every f below 2^23, so that the doubled extension frequency of the HE types fits the 24-bit escape; no enumeration):
   the sample entry of a successful SetAACDescriptor(o, f) is, in the box model, mp4a{esds} with the whole descriptor tree
   typed (ES descriptor 1, DecoderConfigDescriptor 0x40/0x15, DecSpecificInfo, SLConfig 2; esds_leaf); that box prints and
   parses back to itself with C01's decoder (so by C19_roundtrip the DECODED init holds exactly it); the DecConfig bytes
   of its DecSpecificInfo are the bytes C18's model of AudioSpecificConfig.Encode writes for the configuration SUPPLIED
   (cfg: object type o, sampling frequency f, channel configuration 2 -- 1 for HE-AAC v2 --, extension frequency 2f and
   SBR / PS flags for the HE types), and C18's model of DecodeAudioSpecificConfig reads them back as that configuration. *)
Theorem C19_descriptor_aac_typed :
  forall t o f t',
    f < 8388608 -> set_aac t o f = (OOk, t') ->
    let chan := if o =? 29 then 1 else 2 in
    let cfg := C18EntryModel.set_aac_asc o (Z.of_N f) in
    exists asc e b,
      sd_entries t' = sd_entries t ++ [e] /\ e = mkSE (BS "mp4a") 1 chan 16 (f mod 65536) (CfgEsds asc)
      /\ entry_box e = Some b /\ b = preb (LAudio (BS "mp4a") 1 chan 16 (f mod 65536)) [leafb (esds_leaf asc)]
      /\ (exists enc, raw_box false b = Ok enc /\ lenN enc = size_box b
            /\ forall fuel r2, (fuel_of b <= fuel)%nat -> decode_box fuel (enc ++ r2) = Ok (b, r2))
      /\ esds_dec_config (esds_leaf asc) = Some asc
      /\ C18Model.encode_asc cfg = Ok asc /\ C18Model.decode_asc asc = Ok cfg
      /\ C18Model.a_ot cfg = o /\ C18Model.a_freq cfg = Z.of_N f /\ C18Model.a_chan cfg = chan.
Proof. exact aac_typed. Qed.
Print Assumptions C19_descriptor_aac_typed.

(* ... and at the level of whole histories: "the DECODED init carries the configuration supplied".  For EVERY history in the
   scope of C19_roundtrip whose SetAACDescriptor frequencies are below 2^23 (aac_small), in the final state every sample entry
   with an esds -- of any track, whatever calls came before and after -- is the entry some SetAACDescriptor(o, f) call built
   (provenance, by induction over the history); its typed box mp4a{esds{ES{DecoderConfig{DecSpecificInfo asc}, SLConfig}}} occurs
   inside the tree that C01's decoder returns for the encoded init (decode_file bs = Ok ts; inside: below moov / trak / mdia /
   minf / stbl / stsd), and C18's DecodeAudioSpecificConfig model reads asc back as the configuration of that call. *)
Theorem C19_decoded_init_aac :
  forall (avc_parse : avc_parser) (hevc_parse : hevc_parser) (ops : list op),
    N.of_nat (length ops) < 4294967295 -> Forall aac_small ops ->
    let s := snd (run avc_parse hevc_parse ops) in
    args_okb s = true -> forall ts, tree_of s = Some ts -> forallb enc_fits ts = true ->
    exists bs, encode_seq false ts = Ok bs /\ decode_file bs = Ok ts
      /\ forall t e asc, In t (traks s) -> In e (sd_entries t) -> se_cfg e = CfgEsds asc ->
         exists o f b top,
           f < 8388608
           /\ e = mkSE (BS "mp4a") 1 (if o =? 29 then 1 else 2) 16 (f mod 65536) (CfgEsds asc)
           /\ b = preb (LAudio (BS "mp4a") 1 (if o =? 29 then 1 else 2) 16 (f mod 65536)) [leafb (esds_leaf asc)]
           /\ In top ts /\ inside b top
           /\ esds_dec_config (esds_leaf asc) = Some asc
           /\ C18Model.decode_asc asc = Ok (C18EntryModel.set_aac_asc o (Z.of_N f))
           /\ C18Model.a_ot (C18EntryModel.set_aac_asc o (Z.of_N f)) = o
           /\ C18Model.a_freq (C18EntryModel.set_aac_asc o (Z.of_N f)) = Z.of_N f.
Proof. exact decoded_init_aac. Qed.
Print Assumptions C19_decoded_init_aac.

(* print-then-parse of the typed esds box around ANY decoder configuration of at most 100 bytes (one-byte size fields) *)
Theorem C19_box_roundtrip_esds :
  forall asc, lenN asc <= 100 ->
    exists b, body_leaf (esds_leaf asc) (dflt_rsv (esds_leaf asc)) = Ok b /\ lenN b + 8 = size_leaf (esds_leaf asc)
      /\ forall r2, dec_esds (hdr8 (leaf_name (esds_leaf asc)) (size_leaf (esds_leaf asc))) (b ++ r2)
                    = Ok ((esds_leaf asc, dflt_rsv (esds_leaf asc)), r2).
Proof. exact lpp_esds. Qed.
Print Assumptions C19_box_roundtrip_esds.

(* the mp4a sample rate is the supplied frequency below 2^16 ... *)
Theorem C19_aac_samplerate :
  forall t o f t', f < 65536 -> set_aac t o f = (OOk, t') ->
    exists e, sd_entries t' = sd_entries t ++ [e] /\ se_c e = f /\ se_name e = BS "mp4a".
Proof.
  intros t o f t' Hf H. apply set_aac_ok in H. destruct H as [asc [_ [He _]]].
  eexists. split; [exact He|]. cbn [se_c se_name]. split; [apply N.mod_small; exact Hf|reflexivity].
Qed.
Print Assumptions C19_aac_samplerate.

(* ... and NOT for the valid AAC frequency 96000 (uint16 truncation; known finding C19-F4) *)
Theorem C19_aac_samplerate_refuted :
  exists t o f t', In (o, f) aac_domain /\ set_aac t o f = (OOk, t') /\
                   exists e, last (sd_entries t') e = e /\ In e (sd_entries t') /\ se_c e <> f.
Proof.
  exists (mkTrak 1 256 0 0 96000 0 (BS "soun") [] None Smhd []), 2, 96000.
  eexists. split; [vm_compute; tauto|]. split; [vm_compute; reflexivity|].
  eexists. split; [reflexivity|]. split; [left; reflexivity|]. vm_compute. discriminate.
Qed.
Print Assumptions C19_aac_samplerate_refuted.

(* SetAC3Descriptor / SetEC3Descriptor: the dac3/dec3 supplied, channel count and sample rate of the tables *)
Theorem C19_descriptor_ac3 :
  forall t fscod bsid bsmod acmod lfeon brc t',
    set_ac3 t (mkDac3 fscod bsid bsmod acmod lfeon brc) = (OOk, t') ->
    sd_entries t' = sd_entries t ++
      [mkSE (BS "ac-3") 1 ((spec_acmod_nchan acmod + (if lfeon =? 1 then 1 else 0)) mod 65536) 16
            (spec_ac3_rate fscod mod 65536) (CfgDac3 (mkDac3 fscod bsid bsmod acmod lfeon brc))]
    /\ core t' = core t.
Proof. exact set_ac3_ok. Qed.
Print Assumptions C19_descriptor_ac3.

Theorem C19_descriptor_ec3 :
  forall t dr fscod bsid asvc bsmod acmod lfeon nds cl subs t',
    cl < 512 ->
    set_ec3 t (mkDec3 dr (mkEc3Sub fscod bsid asvc bsmod acmod lfeon nds cl :: subs)) = (OOk, t') ->
    sd_entries t' = sd_entries t ++
      [mkSE (BS "ec-3") 1
            ((spec_acmod_nchan acmod + (if lfeon =? 1 then 1 else 0)
              + (if 0 <? nds then spec_chanloc_count 0 spec_chanloc_weights cl else 0)) mod 65536) 16
            (spec_ac3_rate fscod mod 65536)
            (CfgDec3 (mkDec3 dr (mkEc3Sub fscod bsid asvc bsmod acmod lfeon nds cl :: subs)))]
    /\ core t' = core t.
Proof. exact set_ec3_ok. Qed.
Print Assumptions C19_descriptor_ec3.

Theorem C19_descriptor_wvtt :
  forall t config,
    set_wvtt t config =
    (OOk, stsd_add t (mkSE (BS "wvtt") 1 0 0 0 (CfgVttC (match config with [] => BS "WEBVTT" | _ => config end)))).
Proof. exact set_wvtt_ok. Qed.
Print Assumptions C19_descriptor_wvtt.

Theorem C19_descriptor_stpp :
  forall t ns schema mime,
    set_stpp t ns schema mime =
    (OOk, stsd_add t (mkSE (BS "stpp") 1 0 0 0
                           (CfgStpp (match ns with [] => BS "http://www.w3.org/ns/ttml" | _ => ns end) schema mime))).
Proof. exact set_stpp_ok. Qed.
Print Assumptions C19_descriptor_stpp.

(* The parts of an init segment that have a byte-level model of their own, beside the box model in which C19_roundtrip
   is stated further down: the codec configuration records (C19_avcrec_roundtrip / C19_hvcrec_roundtrip /
   C19_descriptor_{avc,hevc}_record: the only part of the tree written from the parameter sets, all profiles), the
   extended language box (C19_elng_roundtrip: the one variable-length box written from AddEmptyTrack's arguments, with
   the exact length boundary) and the strings of the stpp sample entry (C19_stpp_roundtrip).  C19_language_readback is
   the mdhd language field, C19_trex_lookup what fragment decoding needs from the init.  The typed decoding of the boxes
   that the box model holds as opaque payloads is evaluated on the real code by the search (encode -> DecodeFile ->
   equal Info dump, equal re-encoding, IsFragmented, single- and multi-track fragments with samples read back through
   the trex). *)

(* round trip of the extended language box (the only variable-length box AddEmptyTrack writes from its
   arguments): a tag of two or more non-NUL bytes decodes to the same tag as a full box ... *)
Theorem C19_elng_roundtrip :
  forall lang, no_nul lang = true -> (2 <= length lang)%nat -> elng_decode (elng_payload lang) = Ok (false, lang).
Proof. exact elng_roundtrip. Qed.
Print Assumptions C19_elng_roundtrip.

(* ... and a one-byte tag does not (payload shorter than 7 bytes is taken for the old layout): the property's
   "two or more characters" is the exact boundary *)
Theorem C19_elng_short_refuted :
  exists lang, no_nul lang = true /\ length lang = 1%nat /\ elng_decode (elng_payload lang) = Ok (true, []).
Proof. exists [120]. vm_compute. repeat split; reflexivity. Qed.
Print Assumptions C19_elng_short_refuted.

(* the stpp sample entry (three zero-terminated strings) decodes to the strings supplied *)
Theorem C19_stpp_roundtrip :
  forall dref ns schema mime,
    dref < 65536 -> no_nul ns = true -> no_nul schema = true -> no_nul mime = true ->
    stpp_decode (stpp_payload dref ns schema mime) = Ok (dref, ns, schema, mime, 0%nat).
Proof. exact stpp_roundtrip. Qed.
Print Assumptions C19_stpp_roundtrip.

(* ------------------------------------------------------------------ codec configuration records, byte level
   (C19RecModel.v: avc.DecConfRec / hevc.DecConfRec Size, EncodeSW, Decode...DecConfRec) *)

(* Size() is exactly the number of bytes EncodeSW writes, for EVERY record (any profile, any NoTrailingInfo, any
   number and length of parameter sets): the FixedSliceWriter of capacity Size() never overflows or is left short *)
Theorem C19_avcrec_size : forall r, lenN (avcrec_encode r) = avcrec_size r.
Proof. exact avcrec_size_ok. Qed.
Print Assumptions C19_avcrec_size.

Theorem C19_hvcrec_size : forall r, lenN (hvcrec_encode r) = hvcrec_size r.
Proof. exact hvcrec_size_ok. Qed.
Print Assumptions C19_hvcrec_size.

(* every avcC record whose values fit their fields (fewer than 32 SPS, fewer than 256 PPS, NAL units shorter than
   2^16 bytes, chroma format < 4, bit depths < 8, no SPS extension) decodes, after encoding, to its canonical form:
   the record itself, except that the trailing fields are zero when they are not written (profiles 66/77/88, or
   NoTrailingInfo) -- for ALL profile values ... *)
Theorem C19_avcrec_roundtrip :
  forall r, avcrec_ok r = true -> avcrec_decode (avcrec_encode r) = Ok (avcrec_canon r).
Proof. exact avcrec_roundtrip. Qed.
Print Assumptions C19_avcrec_roundtrip.

(* ... and to ITSELF for every profile other than 66/77/88 with NoTrailingInfo false (the records CreateAVCDecConfRec
   builds): chroma format, bit depths and NoTrailingInfo = false come back for profile 244, 44, 83, 86, 118, ... *)
Theorem C19_avcrec_roundtrip_exact :
  forall r, avcrec_ok r = true -> avc_has_trailing r = true -> avcrec_decode (avcrec_encode r) = Ok r.
Proof. exact avcrec_roundtrip_exact. Qed.
Print Assumptions C19_avcrec_roundtrip_exact.

(* every hvcC record whose values fit their fields decodes, after encoding, to itself (all 17 scalar fields and
   every NAL unit array: header byte incl. the reserved bit, NAL units byte for byte) *)
Theorem C19_hvcrec_roundtrip :
  forall r, hvcrec_ok r = true -> hvcrec_decode (hvcrec_encode r) = Ok r.
Proof. exact hvcrec_roundtrip. Qed.
Print Assumptions C19_hvcrec_roundtrip.

(* SetAVCDescriptor, any SPS parser: the avcC of the new sample entry is the record (profile, compatibility, level,
   chroma format, bit depths of the parsed SPS; exactly the supplied parameter sets; no SPS extension; trailing info
   present), its encoding has Size() bytes and decodes to its canonical form -- to the record itself unless the
   profile is 66/77/88 *)
Theorem C19_descriptor_avc_record :
  forall (avc_parse : avc_parser) t name spss ppss incl t',
    set_avc avc_parse t name spss ppss incl = (OOk, t') ->
    nalus_fit 32 spss = true -> nalus_fit 256 ppss = true ->
    exists sps0 rest w h p c l cf bl bc e a,
      spss = sps0 :: rest /\ avc_parse sps0 = Some (w, h, (p, c, l, (cf, bl, bc)))
      /\ sd_entries t' = sd_entries t ++ [e] /\ se_cfg e = CfgAvcC a
      /\ avcrec_of a = mkAvcRec p c l (if incl then spss else []) (if incl then ppss else []) cf bl bc 0 false
      /\ lenN (avcrec_encode (avcrec_of a)) = avcrec_size (avcrec_of a)
      /\ avcrec_decode (avcrec_encode (avcrec_of a)) = Ok (avcrec_canon (avcrec_of a))
      /\ (avc_plain p = false -> avcrec_decode (avcrec_encode (avcrec_of a)) = Ok (avcrec_of a)).
Proof.
  intros avc_parse t name spss ppss incl t' H Fs Fp.
  apply set_avc_ok in H. destruct H as (sps0 & rest & w & h & p & c & l & cf & bl & bc & E & Hp & Hcf & Hbl & Hbc & _ & He & _).
  destruct (fit_split _ _ Fs) as [Fs1 Fs2]. destruct (fit_split _ _ Fp) as [Fp1 Fp2].
  eexists sps0, rest, w, h, p, c, l, cf, bl, bc, _, _.
  split; [exact E|]. split; [exact Hp|]. split; [exact He|]. split; [reflexivity|].
  split; [reflexivity|]. split; [apply avcrec_size_ok|].
  assert (OK : avcrec_ok (avcrec_of (mkAvcC p c l (if incl then spss else []) (if incl then ppss else []) cf bl bc)) = true)
    by (destruct incl; apply avcrec_of_ok; try assumption; try reflexivity; lia).
  split; [apply avcrec_roundtrip; exact OK|].
  intros Hpl. apply avcrec_roundtrip_exact; [exact OK|].
  unfold avc_has_trailing, avcrec_of. cbn [ar_profile ar_notrail ac_profile].
  apply andb_true_iff. split; [apply negb_true_iff; exact Hpl|reflexivity].
Qed.
Print Assumptions C19_descriptor_avc_record.

(* SetHEVCDescriptor, any SPS parser whose answers are in the ranges of the syntax (hevc_cfg_ok): the hvcC of the
   new sample entry is the record with the parsed profile/tier/level/chroma/bit-depth values, the constants of
   CreateHEVCDecConfRec and the VPS/SPS/PPS(/SEI) arrays of the supplied NAL units; it encodes to Size() bytes and
   decodes to itself *)
Theorem C19_descriptor_hevc_record :
  forall (hevc_parse : hevc_parser) t name vpss spss ppss seis incl t',
    set_hevc hevc_parse t name vpss spss ppss seis incl = (OOk, t') ->
    nalus_fit 65536 vpss = true -> nalus_fit 65536 spss = true -> nalus_fit 65536 ppss = true -> nalus_fit 65536 seis = true ->
    (forall sps w h cfg, hevc_parse sps = Some (w, h, cfg) -> hevc_cfg_ok cfg = true) ->
    exists sps0 rest w h space tier idc compat constr level chroma bdl bdc e hc r,
      spss = sps0 :: rest
      /\ hevc_parse sps0 = Some (w, h, [space; tier; idc; compat; constr; level; chroma; bdl; bdc])
      /\ sd_entries t' = sd_entries t ++ [e] /\ se_cfg e = CfgHvcC hc
      /\ hvcrec_of hc = Some r
      /\ r = mkHvcRec 1 space (negb (tier =? 0)) idc compat constr level 0 0 chroma bdl bdc 0 0 0 0 3
                      (spec_hevc_arrays name vpss spss ppss seis incl)
      /\ lenN (hvcrec_encode r) = hvcrec_size r
      /\ hvcrec_decode (hvcrec_encode r) = Ok r.
Proof.
  intros hevc_parse t name vpss spss ppss seis incl t' H Fv Fs Fp Fe Hcfg.
  apply set_hevc_ok in H. destruct H as (sps0 & rest & w & h & cfg & E & Hp & _ & He & _).
  destruct (hevc_arrays_ok name vpss spss ppss seis incl Fv Fs Fp Fe) as (A1 & A2 & _).
  destruct (hvcrec_of_ok cfg _ (Hcfg _ _ _ _ Hp) A1 A2)
    as (space & tier & idc & compat & constr & level & chroma & bdl & bdc & -> & Hr & Hok).
  eexists sps0, rest, w, h, space, tier, idc, compat, constr, level, chroma, bdl, bdc, _, _, _.
  split; [exact E|]. split; [exact Hp|]. split; [exact He|]. split; [reflexivity|].
  split; [exact Hr|]. split; [reflexivity|]. split; [apply hvcrec_size_ok|apply hvcrec_roundtrip; exact Hok].
Qed.
Print Assumptions C19_descriptor_hevc_record.

(* ------------------------------------------------------------------ the whole init segment in C01's box model
   ("C01's model" below is coq/c19/C19BoxCodec.v + C19BoxModel.v: a frozen, verbatim copy of coq/c01/C01Codec.v and
   C01Model.v at /verif commit 88f92e5 (second snapshot: typed esds / hvcC / uuid / sgpd leaves, repaired hdlr Size and senc),
   see the banner of those files)
   (C19TreeModel.v: tree_of s = the box tree of state s with every constant the constructors write; C01's
   encode_seq false / decode_file are the models of InitSegment.Encode / the box loop of DecodeFile; the
   correspondence compares encode_seq false (tree_of s) with the bytes of the real InitSegment.Encode) *)

(* roundtrip_ok is a sound decision procedure for C19_roundtrip on one state: if it answers true then the encoded
   tree decodes to an EQUAL tree (equality of every header, every field of every leaf and every captured reserved
   byte), the decoded file passes File.AddChild's fragmented-init test and GetTrex finds a trex for every track.
   The check evaluates it (extracted) on every correspondence case. *)
Theorem C19_roundtrip_checker_sound :
  forall s, roundtrip_ok s = true ->
    exists ts bs, tree_of s = Some ts /\ encode_seq false ts = Ok bs /\ decode_file bs = Ok ts
      /\ (traks s <> [] -> is_fragmented_init ts = true)
      /\ (forall t, In t (traks s) -> has_trex ts (tk_id t) = true).
Proof.
  intros s H. unfold roundtrip_ok in H.
  destruct (tree_of s) as [ts|]; [|discriminate].
  destruct (encode_seq false ts) as [bs| | |] eqn:He; try discriminate.
  destruct (decode_file bs) as [ts'| | |] eqn:Hd; try discriminate.
  apply andb_true_iff in H. destruct H as [H H3]. apply andb_true_iff in H. destruct H as [H1 H2].
  apply mboxes_eqb_eq in H1. subst ts'.
  exists ts, bs. split; [reflexivity|]. split; [exact He|]. split; [exact Hd|]. split.
  - intros Hne. apply orb_true_iff in H2. destruct H2 as [H2|H2]; [|exact H2].
    apply Nat.eqb_eq in H2. destruct (traks s); [congruence|discriminate].
  - intros t Ht. rewrite forallb_forall in H3. exact (H3 t Ht).
Qed.
Print Assumptions C19_roundtrip_checker_sound.

(* for EVERY history (any arguments, any SPS parser): the tree built for the final state, whenever it has a byte
   model, passes the fragmented-init test of File.AddChild as soon as there is a track (the first trak has the
   mdia/minf/stbl/stts chain and its stts is empty) and holds a trex for every track id: the two facts about the
   decoded init that C19_roundtrip asks for, on the tree that is encoded *)
Theorem C19_built_fragmented_trex :
  forall (avc_parse : avc_parser) (hevc_parse : hevc_parser) (ops : list op),
    N.of_nat (length ops) < 4294967295 ->
    let s := snd (run avc_parse hevc_parse ops) in
    forall ts, tree_of s = Some ts ->
      (traks s <> [] -> is_fragmented_init ts = true) /\ (forall t, In t (traks s) -> has_trex ts (tk_id t) = true).
Proof. exact built_all. Qed.
Print Assumptions C19_built_fragmented_trex.

(* C19_roundtrip, in the C01 box model, for EVERY op sequence and every SPS parser: whenever the values of the final
   state fit the fields of their boxes (args_okb: track ids, timescales, dimensions, profile bytes in the ranges of
   their Go types; at most 31 SPS / 255 PPS of less than 2^16 bytes; hvcC values in their bit fields; language tags
   other than three letters have two or more non-NUL bytes) and the encoded sizes fit 32 bits (C01's enc_fits, what
   EncodeHeader requires), the init segment encodes, C01's model of the box loop of DecodeFile returns a tree EQUAL to
   the one encoded (every header, every field of every box, the reserved bytes the encoders write), the decoded file
   passes File.AddChild's fragmented-init test as soon as there is a track, and GetTrex finds a trex for every track id.
   Relative to: C01's model of the Go box codec (tied to the code by C01's correspondence and, for API-built inits, by
   C19's byte comparison of InitSegment.Encode); esds is TYPED (the whole descriptor tree, C19_descriptor_aac_typed); dac3,
   dec3, wvtt and stpp are opaque payloads in the snapshot of that model (their typed decoding is evaluated by the search;
   stpp and the avcC/hvcC records have their own theorems); decoding media fragments against the decoded init:
   C19_fragments_decode below (composition with C05). *)
Theorem C19_roundtrip :
  forall (avc_parse : avc_parser) (hevc_parse : hevc_parser) (ops : list op),
    N.of_nat (length ops) < 4294967295 ->
    let s := snd (run avc_parse hevc_parse ops) in
    args_okb s = true -> forall ts, tree_of s = Some ts -> forallb enc_fits ts = true ->
    exists bs, encode_seq false ts = Ok bs /\ decode_file bs = Ok ts
      /\ (traks s <> [] -> is_fragmented_init ts = true)
      /\ (forall t, In t (traks s) -> has_trex ts (tk_id t) = true).
Proof. exact roundtrip_all. Qed.
Print Assumptions C19_roundtrip.

(* the hypothesis args_okb is a consequence of hypotheses on the ARGUMENTS: 32-bit timescales, language tags of three
   bytes or of two or more non-NUL bytes, parameter-set lists that fit the records' count/length fields, and SPS parsers
   that answer in the ranges of their Go types (bytes for AVC profile/compatibility/level; the bit fields of
   profile_tier_level, chroma format and bit depths for HEVC) *)
Theorem C19_args_ok :
  forall (avc_parse : avc_parser) (hevc_parse : hevc_parser),
    avc_parser_ok avc_parse -> hevc_parser_ok hevc_parse ->
    forall ops, N.of_nat (length ops) < 4294967295 -> forallb op_args_okb ops = true ->
      args_okb (snd (run avc_parse hevc_parse ops)) = true.
Proof.
  intros avc_parse hevc_parse Havc Hhevc ops Hb Hok. apply sinv_args.
  apply (proj2 (A := (0 <= length ops)%nat)). unfold run.
  apply (run_from_ind avc_parse hevc_parse (fun o => op_args_okb o = true)
           (fun n s => (n <= length ops)%nat /\ sinv n s)).
  - intros n s [Hn Hs]. split; [lia|apply sinv_weaken; exact Hs].
  - intros n s o Ho [Hn Hs]. split; [lia|apply step_sinv; [assumption|assumption|lia|exact Hs|exact Ho]].
  - apply Forall_forall. apply forallb_forall. exact Hok.
  - split; [lia|]. repeat split; constructor.
Qed.
Print Assumptions C19_args_ok.

(* ... so C19_roundtrip holds for every history whose ARGUMENTS are in range (sizes below 2^32) *)
Theorem C19_roundtrip_inputs :
  forall (avc_parse : avc_parser) (hevc_parse : hevc_parser) (ops : list op),
    avc_parser_ok avc_parse -> hevc_parser_ok hevc_parse ->
    N.of_nat (length ops) < 4294967295 -> forallb op_args_okb ops = true ->
    let s := snd (run avc_parse hevc_parse ops) in
    forall ts, tree_of s = Some ts -> forallb enc_fits ts = true ->
    exists bs, encode_seq false ts = Ok bs /\ decode_file bs = Ok ts
      /\ (traks s <> [] -> is_fragmented_init ts = true)
      /\ (forall t, In t (traks s) -> has_trex ts (tk_id t) = true).
Proof.
  intros avc_parse hevc_parse ops Ha Hh Hb Hok s ts Ht Hf.
  exact (roundtrip_all avc_parse hevc_parse ops Hb (C19_args_ok avc_parse hevc_parse Ha Hh ops Hb Hok) ts Ht Hf).
Qed.
Print Assumptions C19_roundtrip_inputs.

(* the converse of C01_tree for constructed trees: every tree made of well-formed parts (wf) is returned by C01's
   decode_box from the bytes C01's encoder writes for it, with any fuel of at least fuel_of t *)
Theorem C19_print_then_parse :
  forall t, wf t ->
    exists enc, raw_box false t = Ok enc /\ lenN enc = size_box t /\ 8 <= size_box t /\
      forall f r2, (fuel_of t <= f)%nat -> decode_box f (enc ++ r2) = Ok (t, r2).
Proof. exact pp_box. Qed.
Print Assumptions C19_print_then_parse.

(* C19_roundtrip on a COMPLETE SMALL SCOPE (271 histories, enumerated in C19TreeScopeProofs.small_scope): one or two
   tracks over the seven media types, 3-letter / 2-letter / BCP-47 tags, each track with none or one of the fitting
   descriptor sequences (AVC, HEVC, AVC then HEVC, AAC, AC-3, E-AC-3, wvtt, stpp).  Nothing is assumed about the state:
   the hypotheses of C19_roundtrip (args_okb, tree_of = Some, enc_fits) are decided by computation on each of the 271
   histories -- which also shows that they can be met across the whole API -- and the round trip is C19_roundtrip. *)
Theorem C19_roundtrip_partial :
  forall ops, In ops small_scope ->
    let s := snd (run ex_avc_parse ex_hevc_parse ops) in
    exists ts bs, tree_of s = Some ts /\ encode_seq false ts = Ok bs /\ decode_file bs = Ok ts
      /\ (traks s <> [] -> is_fragmented_init ts = true)
      /\ (forall t, In t (traks s) -> has_trex ts (tk_id t) = true).
Proof.
  intros ops Hin s. pose proof (proj1 (forallb_forall _ _) small_scope_in_range ops Hin) as A.
  unfold ss_in_range in A. fold s in A.
  apply andb_true_iff in A. destruct A as [A Hfit]. apply andb_true_iff in A. destruct A as [Hlen Hok].
  apply N.ltb_lt in Hlen. destruct (tree_of s) as [ts|] eqn:Et; [|discriminate].
  destruct (roundtrip_all ex_avc_parse ex_hevc_parse ops Hlen Hok ts Et Hfit) as (bs & R).
  exists ts, bs. split; [reflexivity|exact R].
Qed.
Print Assumptions C19_roundtrip_partial.

(* print-then-parse of the boxes whose fields carry the ARGUMENTS of the calls, for ALL in-range values (C01's
   decoders on C01's encoders with the reserved bytes the Go encoders write): the next-track id (mvhd), the track id
   (trex, tkhd), volume / width / height (tkhd), timescale and packed language (mdhd), the entry count (stsd), and the
   sample entry prefixes (name, data reference index, width/height resp. channels/sample size/sample rate).  Together
   with C19_elng_roundtrip, C19_stpp_roundtrip, C19_avcrec_roundtrip, C19_hvcrec_roundtrip these are all the
   argument-dependent bytes of an init segment; every other box is a constant of the constructors.  C19_print_then_parse
   composes them through C01's generic decode_box (header, dispatch tables, child loops and their size accounting): that
   is the proof of C19_roundtrip. *)
Theorem C19_box_roundtrip_mvhd :
  forall f ts du rate vol nt r2,
    f < 16777216 -> ts < 4294967296 -> du < 4294967296 -> rate < 4294967296 -> vol < 65536 -> nt < 4294967296 ->
    forall h b, body_leaf (LMvhd 0 f 0 0 ts du rate vol nt) (dflt_rsv (LMvhd 0 f 0 0 ts du rate vol nt)) = Ok b ->
      dec_mvhd h (b ++ r2) = Ok ((LMvhd 0 f 0 0 ts du rate vol nt, dflt_rsv (LMvhd 0 f 0 0 ts du rate vol nt)), r2).
Proof.
  intros f ts du rate vol nt r2 H1 H2 H3 H4 H5 H6 h b Hb.
  destruct (lpp_mvhd f ts du rate vol nt H1 H2 H3 H4 H5 H6) as (b0 & Hb0 & _ & Hd).
  rewrite Hb0 in Hb. injection Hb as <-. exact (Hd r2).
Qed.
Print Assumptions C19_box_roundtrip_mvhd.

Theorem C19_box_roundtrip_trex :
  forall f tid dsdi dur sz sf r2,
    f < 16777216 -> tid < 4294967296 -> dsdi < 4294967296 -> dur < 4294967296 -> sz < 4294967296 -> sf < 4294967296 ->
    forall h b, body_leaf (LTrex 0 f tid dsdi dur sz sf) (dflt_rsv (LTrex 0 f tid dsdi dur sz sf)) = Ok b ->
      dec_trex h (b ++ r2) = Ok ((LTrex 0 f tid dsdi dur sz sf, dflt_rsv (LTrex 0 f tid dsdi dur sz sf)), r2).
Proof.
  intros f tid dsdi dur sz sf r2 H1 H2 H3 H4 H5 H6 h b Hb.
  destruct (lpp_trex f tid dsdi dur sz sf H1 H2 H3 H4 H5 H6) as (b0 & Hb0 & _ & Hd).
  rewrite Hb0 in Hb. injection Hb as <-. exact (Hd r2).
Qed.
Print Assumptions C19_box_roundtrip_trex.

Theorem C19_box_roundtrip_tkhd :
  forall f tid du layer ag vol wd ht r2,
    f < 16777216 -> tid < 4294967296 -> du < 4294967296 -> layer < 65536 -> ag < 65536 -> vol < 65536 ->
    wd < 4294967296 -> ht < 4294967296 ->
    forall h b, body_leaf (LTkhd 0 f 0 0 tid du layer ag vol wd ht) (dflt_rsv (LTkhd 0 f 0 0 tid du layer ag vol wd ht)) = Ok b ->
      dec_tkhd h (b ++ r2) = Ok ((LTkhd 0 f 0 0 tid du layer ag vol wd ht, dflt_rsv (LTkhd 0 f 0 0 tid du layer ag vol wd ht)), r2).
Proof.
  intros f tid du layer ag vol wd ht r2 H1 H2 H3 H4 H5 H6 H7 H8 h b Hb.
  destruct (lpp_tkhd f tid du layer ag vol wd ht H1 H2 H3 H4 H5 H6 H7 H8) as (b0 & Hb0 & _ & Hd).
  rewrite Hb0 in Hb. injection Hb as <-. exact (Hd r2).
Qed.
Print Assumptions C19_box_roundtrip_tkhd.

Theorem C19_box_roundtrip_mdhd :
  forall f ts du lang r2,
    f < 16777216 -> ts < 4294967296 -> du < 4294967296 -> lang < 65536 ->
    forall h b, body_leaf (LMdhd 0 f 0 0 ts du lang) (dflt_rsv (LMdhd 0 f 0 0 ts du lang)) = Ok b ->
      dec_mdhd h (b ++ r2) = Ok ((LMdhd 0 f 0 0 ts du lang, dflt_rsv (LMdhd 0 f 0 0 ts du lang)), r2).
Proof.
  intros f ts du lang r2 H1 H2 H3 H4 h b Hb.
  destruct (lpp_mdhd f ts du lang H1 H2 H3 H4) as (b0 & Hb0 & _ & Hd).
  rewrite Hb0 in Hb. injection Hb as <-. exact (Hd r2).
Qed.
Print Assumptions C19_box_roundtrip_mdhd.

Theorem C19_box_roundtrip_stsd :
  forall f cnt r2, f < 16777216 -> cnt < 4294967296 ->
    forall h b, body_leaf (LStsd 0 f cnt) (dflt_rsv (LStsd 0 f cnt)) = Ok b ->
      dec_stsd h (b ++ r2) = Ok ((LStsd 0 f cnt, dflt_rsv (LStsd 0 f cnt)), r2).
Proof.
  intros f cnt r2 H1 H2 h b Hb. destruct (ppp_stsd f cnt H1 H2) as (b0 & Hb0 & _ & Hd).
  rewrite Hb0 in Hb. injection Hb as <-. exact (Hd 0 r2).
Qed.
Print Assumptions C19_box_roundtrip_stsd.

Theorem C19_box_roundtrip_visual :
  forall name dri w ht hres vres fc cn r2,
    dri < 65536 -> w < 65536 -> ht < 65536 -> hres < 4294967296 -> vres < 4294967296 -> fc < 65536 -> lenN cn <= 31 ->
    forall sz b, body_leaf (LVisual name dri w ht hres vres fc cn) (dflt_rsv (LVisual name dri w ht hres vres fc cn)) = Ok b ->
      dec_visual (mkHdr name sz 8) (b ++ r2)
      = Ok ((LVisual name dri w ht hres vres fc cn, dflt_rsv (LVisual name dri w ht hres vres fc cn)), r2).
Proof.
  intros name dri w ht hres vres fc cn r2 H1 H2 H3 H4 H5 H6 H7 sz b Hb.
  destruct (ppp_visual name dri w ht hres vres fc cn H1 H2 H3 H4 H5 H6 H7) as (b0 & Hb0 & _ & Hd).
  rewrite Hb0 in Hb. injection Hb as <-. exact (Hd sz r2).
Qed.
Print Assumptions C19_box_roundtrip_visual.

Theorem C19_box_roundtrip_audio :
  forall name dri ch ss sr r2, dri < 65536 -> ch < 65536 -> ss < 65536 -> sr < 65536 ->
    forall sz b, body_leaf (LAudio name dri ch ss sr) (dflt_rsv (LAudio name dri ch ss sr)) = Ok b ->
      dec_audio (mkHdr name sz 8) (b ++ r2) = Ok ((LAudio name dri ch ss sr, dflt_rsv (LAudio name dri ch ss sr)), r2).
Proof.
  intros name dri ch ss sr r2 H1 H2 H3 H4 sz b Hb.
  destruct (ppp_audio name dri ch ss sr H1 H2 H3 H4) as (b0 & Hb0 & _ & Hd).
  rewrite Hb0 in Hb. injection Hb as <-. exact (Hd sz r2).
Qed.
Print Assumptions C19_box_roundtrip_audio.

(* ------------------------------------------------------------------ "fragments created for its track ids decode against it"
   Composition with C05's fragment model (coq/c05, imported read-only; C05_roundtrip_single / _single_modes / C05_roundtrip
   hold for ANY trex).  get_trex (C19FragModel.v) is MvexBox.GetTrex on a tree of the box model. *)

(* for EVERY history in the scope of C19_roundtrip: the DECODED init holds, for every track id, the trex that CreateTrex
   built: that track id, default sample duration / size / flags 0, default sample description index 1 (the first entry
   of stsd); and the track ids are pairwise different (so CreateMultiTrackFragment over them is well formed) *)
Theorem C19_init_trex :
  forall (avc_parse : avc_parser) (hevc_parse : hevc_parser) (ops : list op),
    N.of_nat (length ops) < 4294967295 ->
    let s := snd (run avc_parse hevc_parse ops) in
    args_okb s = true -> forall ts, tree_of s = Some ts -> forallb enc_fits ts = true ->
    exists bs, encode_seq false ts = Ok bs /\ decode_file bs = Ok ts
      /\ NoDup (map tk_id (traks s))
      /\ forall t, In t (traks s) ->
           get_trex ts (tk_id t) = Some (C05Model.mkTrex (tk_id t) 0 0 0) /\ get_trex_dsdi ts (tk_id t) = Some 1.
Proof.
  intros avc_parse hevc_parse ops Hb s Ha ts Ht Hf.
  destruct (roundtrip_all avc_parse hevc_parse ops Hb Ha ts Ht Hf) as (bs & He & Hd & _ & _).
  exists bs. split; [exact He|]. split; [exact Hd|].
  destruct (trex_lookup avc_parse hevc_parse ops Hb) as (Hnd & _). split; [exact Hnd|].
  destruct (inv_all avc_parse hevc_parse ops Hb) as [Hi _].
  exact (built_get_trex _ ts Hi Ht).
Qed.
Print Assumptions C19_init_trex.

(* C19_fragments_decode: every history, every track id T of the built init: a fragment made by CreateFragment(seq, T),
   ANY history of AddFullSample / AddFullSampleToTrack (other ids are refused) adding at least one sample, Sample.Size =
   len(Data), decode times consistent with the durations, optimisation on or off, any extra boxes, below 2 GiB: if
   Fragment.Encode succeeds, then the decoded fragment read through the trex that GetTrex(T) finds in the DECODED init
   (decode_file (encode ts) = ts) returns exactly the samples added, in order, with bytes, sizes, durations, flags,
   composition offsets and decode times -- and nothing through the trex of any other track of the init. *)
Theorem C19_fragments_decode :
  forall (avc_parse : avc_parser) (hevc_parse : hevc_parser) (ops : list op),
    N.of_nat (length ops) < 4294967295 ->
    let s := snd (run avc_parse hevc_parse ops) in
    args_okb s = true -> forall ts, tree_of s = Some ts -> forallb enc_fits ts = true ->
    exists bs, encode_seq false ts = Ok bs /\ decode_file bs = Ok ts
      /\ forall t, In t (traks s) ->
         let T := tk_id t in
         forall fops cs fr opt fe pos0 pre mx post exs,
           N.of_nat (length fops) < 4294967296 -> forallb C05HistProofs.is_full fops = true ->
           Forall (fun o => C05ReadProofs.sized_f (C05GhostProofs.op_full o)) fops ->
           C05FragModel.run_ops (C05FragModel.with_extras (C05FragModel.create_fragment T) pre mx post exs) fops = (cs, Some fr) ->
           C05FragModel.encode_frag opt fr = Ok fe ->
           C05RoundProofs.added1_fulls T fops <> [] ->
           C05FragModel.moof_size fe + C05FragModel.md_header_size (C05FragModel.fr_mdat fe)
             + lenN (C05FragModel.md_data (C05FragModel.fr_mdat fr)) < 2147483648 ->
           pos0 + C05FragModel.fr_pre fe < 4611686018427387904 ->
           C05RoundProofs.consistent (C05RoundProofs.added1_fulls T fops) ->
           C05FragModel.get_full_samples (C05FragModel.decoded_view fe pos0 []) (get_trex ts T)
           = Ok (C05RoundProofs.added1_fulls T fops)
           /\ forall t2, In t2 (traks s) -> tk_id t2 <> T ->
                C05FragModel.get_full_samples (C05FragModel.decoded_view fe pos0 []) (get_trex ts (tk_id t2)) = Ok [].
Proof.
  intros avc_parse hevc_parse ops Hb s Ha ts Ht Hf.
  destruct (C19_init_trex avc_parse hevc_parse ops Hb Ha ts Ht Hf) as (bs & He & Hd & _ & Htx).
  exists bs. split; [exact He|]. split; [exact Hd|].
  intros t Hin T fops cs fr opt fe pos0 pre mx post exs H1 H2 H3 H4 H5 H6 H7 H8 H9.
  subst T. set (T := tk_id t) in *. split.
  - unfold T at 1. destruct (Htx t Hin) as [-> _]. fold T.
    rewrite (C05Theorems.C05_roundtrip_single T fops cs fr opt fe pos0 (C05Model.mkTrex T 0 0 0) pre mx post exs
               H1 H2 H3 H4 H5 H6 H7 H8 H9).
    cbn [C05Model.tx_track]. rewrite N.eqb_refl. reflexivity.
  - intros t2 Hin2 Hne. destruct (Htx t2 Hin2) as [-> _].
    rewrite (C05Theorems.C05_roundtrip_single T fops cs fr opt fe pos0 (C05Model.mkTrex (tk_id t2) 0 0 0) pre mx post exs
               H1 H2 H3 H4 H5 H6 H7 H8 H9).
    cbn [C05Model.tx_track]. destruct (tk_id t2 =? T) eqn:E; [apply N.eqb_eq in E; contradiction|reflexivity].
Qed.
Print Assumptions C19_fragments_decode.

(* the same under ALL six add operations (AddFullSample, AddFullSampleToTrack, AddSampleToTrack, AddSample, AddSamples,
   AddSampleInterval; one data mode per fragment, C05's mode_ok; lz = the data the caller writes after a metadata-only
   fragment): the samples come back with their data pieces and decode times tb + accumulated durations *)
Theorem C19_fragments_decode_modes :
  forall (avc_parse : avc_parser) (hevc_parse : hevc_parser) (ops : list op),
    N.of_nat (length ops) < 4294967295 ->
    let s := snd (run avc_parse hevc_parse ops) in
    args_okb s = true -> forall ts, tree_of s = Some ts -> forallb enc_fits ts = true ->
    exists bs, encode_seq false ts = Ok bs /\ decode_file bs = Ok ts
      /\ forall t, In t (traks s) ->
         let T := tk_id t in
         forall fops cs fr opt fe pos0 pre mx post exs FL lz,
           Forall (fun o => C05HistProofs.op_dts o < 18446744073709551616) fops ->
           C05FragModel.run_ops (C05FragModel.with_extras (C05FragModel.create_fragment T) pre mx post exs) fops = (cs, Some fr) ->
           C05SingleProofs.mode_ok fops cs FL lz ->
           map C05Model.fs_s FL = C05HistProofs.added1 T fops -> Forall C05ReadProofs.sized_f FL -> FL <> [] ->
           C05FragModel.encode_frag opt fr = Ok fe ->
           C05FragModel.moof_size fe + C05FragModel.md_header_size (C05FragModel.fr_mdat fe)
             + lenN (flat_map C05Model.fs_data FL) < 2147483648 ->
           pos0 + C05FragModel.fr_pre fe < 4611686018427387904 ->
           exists tb,
             C05FragModel.get_full_samples (C05FragModel.decoded_view fe pos0 lz) (get_trex ts T)
             = Ok (C05ReadProofs.retime tb FL).
Proof.
  intros avc_parse hevc_parse ops Hb s Ha ts Ht Hf.
  destruct (C19_init_trex avc_parse hevc_parse ops Hb Ha ts Ht Hf) as (bs & He & Hd & _ & Htx).
  exists bs. split; [exact He|]. split; [exact Hd|].
  intros t Hin T fops cs fr opt fe pos0 pre mx post exs FL lz H1 H2 H3 H4 H5 H6 H7 H8 H9.
  subst T. set (T := tk_id t) in *. unfold T at 1. destruct (Htx t Hin) as [-> _]. fold T.
  destruct (C05Theorems.C05_roundtrip_single_modes T fops cs fr opt fe pos0 (C05Model.mkTrex T 0 0 0) pre mx post exs FL lz
              H1 H2 H3 H4 H5 H6 H7 H8 H9) as (tb & ex & _ & Hg).
  exists tb. rewrite Hg. cbn [C05Model.tx_track]. rewrite N.eqb_refl. reflexivity.
Qed.
Print Assumptions C19_fragments_decode_modes.

(* multi-track fragments: CreateMultiTrackFragment(seq, tracks) for ANY duplicate-free id list (e.g. all the ids of the
   init: they are pairwise different), any history of AddFullSampleToTrack: every track of the init reads back, through ITS
   trex of the decoded init, exactly the samples added to it (nothing if it is not part of the fragment) *)
Theorem C19_fragments_decode_multi :
  forall (avc_parse : avc_parser) (hevc_parse : hevc_parser) (ops : list op),
    N.of_nat (length ops) < 4294967295 ->
    let s := snd (run avc_parse hevc_parse ops) in
    args_okb s = true -> forall ts, tree_of s = Some ts -> forallb enc_fits ts = true ->
    exists bs, encode_seq false ts = Ok bs /\ decode_file bs = Ok ts
      /\ NoDup (map tk_id (traks s))
      /\ forall tracks fops cs fr opt fe pos0 pre mx post exs,
           NoDup tracks -> N.of_nat (length fops) < 4294967296 -> forallb C05GhostProofs.is_full_to fops = true ->
           Forall (fun o => C05ReadProofs.sized_f (C05GhostProofs.op_full o)) fops ->
           C05FragModel.run_ops (C05FragModel.with_extras (C05FragModel.create_multi tracks) pre mx post exs) fops = (cs, Some fr) ->
           C05FragModel.encode_frag opt fr = Ok fe ->
           C05FragModel.moof_size fe + C05FragModel.md_header_size (C05FragModel.fr_mdat fe)
             + lenN (C05FragModel.md_data (C05FragModel.fr_mdat fr)) < 2147483648 ->
           pos0 + C05FragModel.fr_pre fe < 4611686018427387904 ->
           forall t, In t (traks s) ->
             C05RoundProofs.consistent (C05RoundProofs.added_fulls tracks (tk_id t) fops) ->
             C05FragModel.get_full_samples (C05FragModel.decoded_view fe pos0 []) (get_trex ts (tk_id t))
             = Ok (C05RoundProofs.added_fulls tracks (tk_id t) fops).
Proof.
  intros avc_parse hevc_parse ops Hb s Ha ts Ht Hf.
  destruct (C19_init_trex avc_parse hevc_parse ops Hb Ha ts Ht Hf) as (bs & He & Hd & Hnd & Htx).
  exists bs. split; [exact He|]. split; [exact Hd|]. split; [exact Hnd|].
  intros tracks fops cs fr opt fe pos0 pre mx post exs H1 H2 H3 H4 H5 H6 H7 H8 t Hin H9.
  destruct (Htx t Hin) as [-> _].
  exact (C05Theorems.C05_roundtrip tracks pre mx post exs fops cs fr opt fe pos0 (C05Model.mkTrex (tk_id t) 0 0 0)
           H1 H2 H3 H4 H5 H6 H7 H8 H9).
Qed.
Print Assumptions C19_fragments_decode_multi.

(* Outside the quantifier (history starting from a DECODED init), reproduced on the real code by the harness:
   AddEmptyTrack repeats an id when the decoded ids are not 1..n, and does not keep the traks together when the
   first moov child is a trak (lastTrakIdx = 0 is read as "no trak"). *)
Theorem C19_decoded_duplicate_id_refuted :
  exists s s', s = mkSt [MCmvhd; MCtrak 0; MCmvex] [some_trak 2] [2] 3
               /\ add_empty_track s 1000 (BS "audio") (BS "eng") = (OOk, s')
               /\ map tk_id (traks s') = [2; 2] /\ trexs s' = [2; 2].
Proof. eexists. eexists. split; [reflexivity|]. vm_compute. repeat split; reflexivity. Qed.
Print Assumptions C19_decoded_duplicate_id_refuted.

Theorem C19_decoded_not_contiguous_refuted :
  exists s s', s = mkSt [MCtrak 0; MCmvhd; MCmvex] [some_trak 1] [1] 2
               /\ add_empty_track s 1000 (BS "audio") (BS "eng") = (OOk, s')
               /\ children s' = [MCtrak 0; MCmvhd; MCmvex; MCtrak 1].
Proof. eexists. eexists. split; [reflexivity|]. vm_compute. repeat split; reflexivity. Qed.
Print Assumptions C19_decoded_not_contiguous_refuted.

(* ------------------------------------------------------------------ the hypotheses are satisfiable *)
Example C19_elng_hyp : no_nul (BS "zh-Hant") = true /\ (2 <= length (BS "en"))%nat.
Proof. split; vm_compute; [reflexivity|lia]. Qed.

Example C19_tracks_hyp : N.of_nat (length ex_ops) < 4294967295 /\ ops_valid 0 ex_ops = true.
Proof. split; vm_compute; reflexivity. Qed.

(* ... and the run is what the theorems say: five tracks, ids 1..5, next id 6, all calls succeed *)
Example C19_tracks_run :
  let '(ocs, s) := run ex_avc_parse ex_hevc_parse ex_ops in
  ocs = repeat OOk 10 /\ map tk_id (traks s) = [1; 2; 3; 4; 5] /\ trexs s = [1; 2; 3; 4; 5] /\ next_id s = 6
  /\ map hd_type (traks s) = [BS "vide"; BS "soun"; BS "subt"; BS "vide"; BS "soun"]
  /\ map (fun t => length (sd_entries t)) (traks s) = [1; 1; 1; 1; 1]%nat.
Proof. vm_compute. repeat split; reflexivity. Qed.

Example C19_language_hyp : lower 115 = true /\ lower 119 = true /\ lower 101 = true /\ pack3 115 119 101 = 20197.
Proof. vm_compute. repeat split; reflexivity. Qed.

Example C19_aac_domain_hyp : In (29, 24000) aac_domain /\ In (2, 96000) aac_domain.
Proof. split; vm_compute; tauto. Qed.

(* the record hypotheses are satisfiable: High 4:4:4 Predictive (244), 4:4:4, 10/12 bit, two SPS, one PPS ... *)
Definition ex_avcrec : avcrec := mkAvcRec 244 0 51 [[103; 244; 0; 51; 1]; [103; 244]] [[104; 206; 56; 128]] 3 2 4 0 false.
Example C19_avcrec_hyp :
  avcrec_ok ex_avcrec = true /\ avc_has_trailing ex_avcrec = true /\ avcrec_size ex_avcrec = 28
  /\ avcrec_decode (avcrec_encode ex_avcrec) = Ok ex_avcrec.
Proof. vm_compute. repeat split; reflexivity. Qed.

(* ... and the trailing bytes are what makes the difference: without them the same record reads back as
   monochrome 8 bit with NoTrailingInfo (what a writer that omits them for profile 244 would produce) *)
Example C19_avcrec_without_trailing :
  avcrec_decode (avcrec_encode (mkAvcRec 244 0 51 [[103; 244; 0; 51; 1]; [103; 244]] [[104; 206; 56; 128]] 3 2 4 0 true))
  = Ok (mkAvcRec 244 0 51 [[103; 244; 0; 51; 1]; [103; 244]] [[104; 206; 56; 128]] 0 0 0 0 true).
Proof. vm_compute. reflexivity. Qed.

Definition ex_hvcrec : hvcrec :=
  mkHvcRec 1 0 true 4 134217728 158329674399744 153 0 0 3 4 4 0 0 0 0 3 [(160, [[64; 1; 12]]); (161, [[66; 1; 1]; [66; 1; 2]]); (162, [])].
Example C19_hvcrec_hyp :
  hvcrec_ok ex_hvcrec = true /\ hvcrec_size ex_hvcrec = 47 /\ hvcrec_decode (hvcrec_encode ex_hvcrec) = Ok ex_hvcrec.
Proof. vm_compute. repeat split; reflexivity. Qed.

(* a parser whose answers are in range (the answer of the real parser for the 960x540 SPS of examples/initcreator) *)
Definition ex_hevc_const : hevc_parser := fun _ => Some (960, 540, [0; 0; 2; 536870912; 0; 123; 1; 2; 2]).
Example C19_record_hyp :
  nalus_fit 32 [[103; 100; 0; 32]] = true /\ nalus_fit 256 [[104; 181]] = true
  /\ (forall sps w h cfg, ex_hevc_const sps = Some (w, h, cfg) -> hevc_cfg_ok cfg = true).
Proof.
  split; [vm_compute; reflexivity|]. split; [vm_compute; reflexivity|].
  intros sps w h cfg E. unfold ex_hevc_const in E. inversion E. vm_compute. reflexivity.
Qed.

(* the small scope is not empty or trivial: 271 histories; number 92 (from 0) is a two-track history of five calls: a video
   track with an avc3 and then a hev1 sample entry, and an audio track with a descriptor (E-AC-3) *)
Example C19_small_scope_hyp :
  lenN small_scope = 271 /\ In (nth 92 small_scope []) small_scope
  /\ map (fun o => match o with AddEmptyTrack _ m _ => m | SetDesc _ (DAvc n _ _ _) => n | SetDesc _ (DHevc n _ _ _ _ _) => n
                               | SetDesc _ _ => [] end) (nth 92 small_scope [])
     = [BS "video"; BS "avc3"; BS "hev1"; BS "audio"; []].
Proof.
  split; [exact small_scope_size|]. split; [|vm_compute; reflexivity].
  apply nth_In. pose proof small_scope_size as Z. unfold lenN in Z. lia.
Qed.

(* the values CreateEmptyTrak / CreateVisualSampleEntryBox write are in the ranges of the box round trips *)
Example C19_box_roundtrip_hyp :
  lenN compressor_name <= 31 /\ 4718592 < 4294967296
  /\ exists b, body_leaf (LTkhd 0 7 0 0 3 0 0 0 256 83886080 47185920) (dflt_rsv (LTkhd 0 7 0 0 3 0 0 0 256 83886080 47185920)) = Ok b
              /\ lenN b = 84.
Proof. split; [vm_compute; discriminate|]. split; [reflexivity|]. eexists. split; [reflexivity|]. vm_compute. reflexivity. Qed.

(* the hypotheses of C19_roundtrip are satisfiable: the five-call history above (AVC + HEVC video, E-AC-3 audio) *)
Example C19_roundtrip_hyp :
  let s := snd (run ex_avc_parse ex_hevc_parse (nth 92 small_scope [])) in
  args_okb s = true /\ match tree_of s with Some ts => forallb enc_fits ts | None => false end = true
  /\ length (traks s) = 2%nat.
Proof. vm_compute. repeat split; reflexivity. Qed.

(* the argument hypotheses are satisfiable: constant in-range parsers and the ten calls of ex_ops *)
Definition ex_avc_const : avc_parser := fun _ => Some (1280, 720, (244, 0, 51, (3, 2, 2))).
Example C19_roundtrip_inputs_hyp :
  avc_parser_ok ex_avc_const /\ hevc_parser_ok ex_hevc_const /\ forallb op_args_okb ex_ops = true.
Proof.
  split; [|split].
  - intros sps w h pr c l x E. unfold ex_avc_const in E. inversion E. repeat split; reflexivity.
  - intros sps w h cfg E. unfold ex_hevc_const in E. inversion E. split; vm_compute; reflexivity.
  - vm_compute. reflexivity.
Qed.

(* the hypotheses of C19_fragments_decode are satisfiable and its conclusion computes: the two-track init of
   C19_roundtrip_hyp (video + audio), a fragment for track 2 with three full samples (one addressed to an unknown id is
   refused), optimisation on, read through the trex found in the decoded init *)
Example C19_fragments_decode_hyp :
  let s := snd (run ex_avc_parse ex_hevc_parse (nth 92 small_scope [])) in
  let sm k := C05Model.mkSample 16842752 10 k 0 in
  let fops := [C05FragModel.OFull (sm 2) 500 [1; 2]; C05FragModel.OFullTo 9 (sm 1) 0 [9]; C05FragModel.OFull (sm 1) 510 [3];
               C05FragModel.OFullTo 2 (sm 3) 520 [4; 5; 6]] in
  map tk_id (traks s) = [1; 2]
  /\ forallb C05HistProofs.is_full fops = true
  /\ Forall (fun o => C05ReadProofs.sized_f (C05GhostProofs.op_full o)) fops
  /\ C05RoundProofs.consistent (C05RoundProofs.added1_fulls 2 fops)
  /\ exists ts fr fe,
       tree_of s = Some ts
       /\ get_trex ts 2 = Some (C05Model.mkTrex 2 0 0 0)
       /\ C05FragModel.run_ops (C05FragModel.with_extras (C05FragModel.create_fragment 2) 20 0 8 [5]) fops
          = ([C05FragModel.COk; C05FragModel.CErr; C05FragModel.COk; C05FragModel.COk], Some fr)
       /\ C05FragModel.encode_frag true fr = Ok fe
       /\ C05FragModel.get_full_samples (C05FragModel.decoded_view fe 300 []) (get_trex ts 2)
          = Ok [C05Model.mkFull (sm 2) 500 [1; 2]; C05Model.mkFull (sm 1) 510 [3]; C05Model.mkFull (sm 3) 520 [4; 5; 6]].
Proof.
  split; [vm_compute; reflexivity|]. split; [reflexivity|]. split; [repeat constructor|].
  split; [split; [cbn; lia|reflexivity]|].
  eexists; eexists; eexists. split; [vm_compute; reflexivity|]. split; [vm_compute; reflexivity|].
  split; [vm_compute; reflexivity|]. split; [vm_compute; reflexivity|]. vm_compute. reflexivity.
Qed.

(* the hypotheses of C19_descriptor_avc_dims / _hevc_dims are satisfiable, with everything the cropped size must NOT
   depend on or must depend on: C15's ex_sps is High 4:2:2, field coded (frame_mbs_only_flag 0), cropped (1,2,3,1), with a
   VUI whose sample aspect ratio is 40:33 (aspect_ratio_idc 255): 120x34 map units -> 1914 x 1080, the same as without VUI
   (and NOT 1914*40/33 = 2320); ex_hsps is 1920x1088 4:2:0 with a conformance window and SAR 4:3 -> 1920 x 1080 *)
Example C19_descriptor_dims_hyp :
  C15Spec.sps_valid C15Examples.ex_sps = true
  /\ (C15Spec.sar_width (C15Spec.vui_params C15Examples.ex_sps), C15Spec.sar_height (C15Spec.vui_params C15Examples.ex_sps)) = (40, 33)
  /\ C15Spec.frame_mbs_only_flag C15Examples.ex_sps = false /\ C15Spec.frame_cropping_flag C15Examples.ex_sps = true
  /\ (C15Spec.display_width C15Examples.ex_sps, C15Spec.display_height C15Examples.ex_sps) = (1914, 1080)
  /\ (C15Spec.display_width C15Examples.ex_sps_novui, C15Spec.display_height C15Examples.ex_sps_novui) = (1914, 1080)
  /\ (exists t', set_avc c15_avc_parser (some_trak 1) (BS "avc1") [C15Spec.nalu_sps C15Examples.ex_sps] [[104; 206; 56; 128]] true = (OOk, t')
                 /\ map (fun e => (se_a e, se_b e)) (sd_entries t') = [(1914, 1080)] /\ tk_width t' = 125435904)
  /\ C15HevcSpec.hsps_valid C15HevcExamples.ex_hsps = true
  /\ (C15HevcSpec.h_display_width C15HevcExamples.ex_hsps, C15HevcSpec.h_display_height C15HevcExamples.ex_hsps) = (1920, 1080)
  /\ (exists t', set_hevc c15_hevc_parser (some_trak 1) (BS "hev1") [] [C15HevcSpec.hnalu_sps C15HevcExamples.ex_hsps] [] [] true = (OOk, t')
                 /\ map (fun e => (se_a e, se_b e)) (sd_entries t') = [(1920, 1080)]).
Proof.
  split; [vm_compute; reflexivity|]. split; [reflexivity|]. split; [reflexivity|]. split; [reflexivity|].
  split; [vm_compute; reflexivity|]. split; [vm_compute; reflexivity|].
  split; [eexists; split; [vm_compute; reflexivity|]; split; vm_compute; reflexivity|].
  split; [vm_compute; reflexivity|]. split; [vm_compute; reflexivity|].
  eexists; split; [vm_compute; reflexivity|]; vm_compute; reflexivity.
Qed.

(* the hypotheses of C19_descriptor_aac_typed are satisfiable: HE-AAC v1 at 24000 Hz on an empty audio track: the
   four configuration bytes are computed, the typed entry exists, C18 reads 5 / 24000 / 2 / 48000 back *)
Example C19_descriptor_aac_typed_hyp :
  exists t' asc,
    set_aac (some_trak 1) 5 24000 = (OOk, t') /\ 24000 < 8388608
    /\ map se_cfg (sd_entries t') = [CfgEsds asc] /\ lenN asc = 4
    /\ C18Model.decode_asc asc = Ok (C18Model.mkAsc 5 2 24000%Z 48000%Z true false)
    /\ lenN asc <= 100.
Proof.
  eexists; eexists. split; [vm_compute; reflexivity|]. split; [reflexivity|]. split; [reflexivity|].
  split; [vm_compute; reflexivity|]. split; [vm_compute; reflexivity|]. vm_compute. discriminate.
Qed.

(* the hypotheses of C19_fragments_decode_multi are satisfiable and its conclusion computes: the same two-track init, ONE
   multi-track fragment over both ids with alternating runs and an addition to an unknown id (refused), optimisation on: each
   track reads back, through its own trex of the decoded init, exactly what was added to it *)
Example C19_fragments_decode_multi_hyp :
  let s := snd (run ex_avc_parse ex_hevc_parse (nth 92 small_scope [])) in
  let sm k := C05Model.mkSample 16842752 10 k 0 in
  let fops := [C05FragModel.OFullTo 2 (sm 1) 100 [1]; C05FragModel.OFullTo 2 (sm 2) 110 [2; 3]; C05FragModel.OFullTo 1 (sm 1) 0 [4];
               C05FragModel.OFullTo 9 (sm 1) 0 [9]; C05FragModel.OFullTo 2 (sm 1) 120 [5]] in
  NoDup (map tk_id (traks s)) /\ forallb C05GhostProofs.is_full_to fops = true
  /\ Forall (fun o => C05ReadProofs.sized_f (C05GhostProofs.op_full o)) fops
  /\ C05RoundProofs.consistent (C05RoundProofs.added_fulls [1; 2] 2 fops)
  /\ exists ts fr fe,
       tree_of s = Some ts
       /\ C05FragModel.run_ops (C05FragModel.with_extras (C05FragModel.create_multi (map tk_id (traks s))) 77 9 12 [0; 26]) fops
          = ([C05FragModel.COk; C05FragModel.COk; C05FragModel.COk; C05FragModel.CErr; C05FragModel.COk], Some fr)
       /\ C05FragModel.encode_frag true fr = Ok fe
       /\ C05FragModel.get_full_samples (C05FragModel.decoded_view fe 1000 []) (get_trex ts 2)
          = Ok [C05Model.mkFull (sm 1) 100 [1]; C05Model.mkFull (sm 2) 110 [2; 3]; C05Model.mkFull (sm 1) 120 [5]]
       /\ C05FragModel.get_full_samples (C05FragModel.decoded_view fe 1000 []) (get_trex ts 1)
          = Ok [C05Model.mkFull (sm 1) 0 [4]].
Proof.
  split; [vm_compute; repeat constructor; cbn; intuition congruence|]. split; [reflexivity|]. split; [repeat constructor|].
  split; [split; [cbn; lia|reflexivity]|].
  eexists; eexists; eexists. split; [vm_compute; reflexivity|]. split; [vm_compute; reflexivity|].
  split; [vm_compute; reflexivity|]. split; vm_compute; reflexivity.
Qed.

(* ... and of C19_fragments_decode_modes, metadata-only mode: AddSamples of two samples, an AddSampleToTrack for another id
   (refused), AddSample; the caller writes the 6 data bytes after the fragment *)
Example C19_fragments_decode_modes_hyp :
  let s := snd (run ex_avc_parse ex_hevc_parse (nth 92 small_scope [])) in
  let sm k := C05Model.mkSample 16842752 10 k 0 in
  let fops := [C05FragModel.OMetas [sm 2; sm 1] 500; C05FragModel.OMetaTo 9 (sm 1) 0; C05FragModel.OMeta (sm 3) 520] in
  let FL := [C05Model.mkFull (sm 2) 0 [1; 2]; C05Model.mkFull (sm 1) 0 [3]; C05Model.mkFull (sm 3) 0 [4; 5; 6]] in
  exists ts fr fe,
    tree_of s = Some ts
    /\ C05FragModel.run_ops (C05FragModel.with_extras (C05FragModel.create_fragment 2) 20 0 8 [5]) fops
       = ([C05FragModel.COk; C05FragModel.CErr; C05FragModel.COk], Some fr)
    /\ C05SingleProofs.mode_ok fops [C05FragModel.COk; C05FragModel.CErr; C05FragModel.COk] FL [1; 2; 3; 4; 5; 6]
    /\ map C05Model.fs_s FL = C05HistProofs.added1 2 fops /\ Forall C05ReadProofs.sized_f FL
    /\ C05FragModel.encode_frag true fr = Ok fe
    /\ C05FragModel.get_full_samples (C05FragModel.decoded_view fe 300 [1; 2; 3; 4; 5; 6]) (get_trex ts 2)
       = Ok [C05Model.mkFull (sm 2) 500 [1; 2]; C05Model.mkFull (sm 1) 510 [3]; C05Model.mkFull (sm 3) 520 [4; 5; 6]].
Proof.
  eexists; eexists; eexists. split; [vm_compute; reflexivity|]. split; [vm_compute; reflexivity|].
  split; [right; left; split; reflexivity|]. split; [reflexivity|]. split; [repeat constructor|].
  split; [vm_compute; reflexivity|]. vm_compute. reflexivity.
Qed.

(* the hypotheses of C19_decoded_init_aac are satisfiable: the ten calls of ex_ops (five tracks; track 2 gets HE-AAC v1 at
   24000 Hz between an AVC and an stpp descriptor call): all AAC frequencies are small, the state is in range, and the final
   state does hold an esds entry on track 2 *)
Example C19_decoded_init_aac_hyp :
  let s := snd (run ex_avc_parse ex_hevc_parse ex_ops) in
  Forall aac_small ex_ops /\ args_okb s = true
  /\ match tree_of s with Some ts => forallb enc_fits ts | None => false end = true
  /\ exists t e asc, nth_error (traks s) 1 = Some t /\ sd_entries t = [e] /\ se_cfg e = CfgEsds asc /\ lenN asc = 4.
Proof.
  split; [repeat constructor|]. split; [vm_compute; reflexivity|]. split; [vm_compute; reflexivity|].
  eexists; eexists; eexists. split; [vm_compute; reflexivity|]. split; [reflexivity|]. split; reflexivity.
Qed.

(* ------------------------------------------------------------------ AC-3 / Enhanced AC-3 configuration boxes, TYPED decoding
   (C19Ac3Model.v: decodeDac3FromData / decodeDec3FromData over C13's model of bits.Reader; round 4) *)

(* EVERY dac3 whose fields fit their bits (fscod 2, bsid 5, bsmod 3, acmod 3, lfeon 1, bit_rate_code 5): the 3 bytes
   Dac3Box.EncodeSW writes decode, with the real decoder's algorithm, to the fields supplied, Reserved 0, no initial zeroes *)
Theorem C19_dac3_roundtrip :
  forall d, dac3_okb d = true -> dac3_decode (dac3_payload d) = Ok (d, 0, 0).
Proof. exact C19Ac3Proofs.dac3_roundtrip. Qed.
Print Assumptions C19_dac3_roundtrip.

(* EVERY dec3 with a 13-bit data rate and 1..8 substreams whose fields fit their bits (chan_loc 9 bits next to a non-zero
   num_dep_sub, 0 otherwise: the box has no chan_loc without dependent substreams): the bytes Dec3Box.EncodeSW writes decode
   to the SAME substream list, in order, with nothing left over as Reserved *)
Theorem C19_dec3_roundtrip :
  forall d, dec3_okb d = true -> exists p, dec3_payload d = Some p /\ dec3_decode p = Ok (d, []).
Proof. exact C19Ac3Proofs.dec3_roundtrip. Qed.
Print Assumptions C19_dec3_roundtrip.

(* the guard on chan_loc is exact: a ChanLoc next to NumDepSub = 0 is not written, the decoder returns 0 *)
Theorem C19_dec3_chanloc_refuted :
  exists d p, dec3_payload d = Some p /\ dec3_decode p <> Ok (d, []) /\
              d = mkDec3 640 [mkEc3Sub 0 16 0 0 7 1 0 5].
Proof.
  exists (mkDec3 640 [mkEc3Sub 0 16 0 0 7 1 0 5]). eexists.
  split; [vm_compute; reflexivity|]. split; [|reflexivity].
  intros H. vm_compute in H. discriminate H.
Qed.
Print Assumptions C19_dec3_chanloc_refuted.

(* "a sample entry whose ... codec configuration ... equal those supplied", for AC-3 / E-AC-3 at the level of the BYTES of the
   sample entry: a successful Set{AC3,EC3}Descriptor with such a configuration adds one entry whose box is the audio sample
   entry with a dac3 / dec3 child, and the child's payload decodes to exactly the configuration supplied.  (C19_roundtrip:
   that payload is what C01's decoder returns inside the decoded init.) *)
Theorem C19_descriptor_ac3_decoded :
  forall t d t',
    dac3_okb d = true -> set_ac3 t d = (OOk, t') ->
    exists e, sd_entries t' = sd_entries t ++ [e] /\ se_cfg e = CfgDac3 d /\
              entry_box e = Some (preb (LAudio (se_name e) (se_dref e) (se_a e) (se_b e) (se_c e))
                                       [unkb n_dac3 (dac3_payload d)]) /\
              dac3_decode (dac3_payload d) = Ok (d, 0, 0).
Proof.
  intros t d t' Hok H. destruct d as [fscod bsid bsmod acmod lfeon brc].
  destruct (set_ac3_ok _ _ _ _ _ _ _ _ H) as [He _].
  eexists. split; [exact He|]. split; [reflexivity|]. split; [reflexivity|]. exact (C19Ac3Proofs.dac3_roundtrip _ Hok).
Qed.
Print Assumptions C19_descriptor_ac3_decoded.

Theorem C19_descriptor_ec3_decoded :
  forall t d t',
    dec3_okb d = true -> set_ec3 t d = (OOk, t') ->
    exists e p, sd_entries t' = sd_entries t ++ [e] /\ se_cfg e = CfgDec3 d /\
                entry_box e = Some (preb (LAudio (se_name e) (se_dref e) (se_a e) (se_b e) (se_c e)) [unkb n_dec3 p]) /\
                dec3_decode p = Ok (d, []).
Proof.
  intros t d t' Hok H. destruct (C19Ac3Proofs.dec3_roundtrip d Hok) as [p [Hp Hd]].
  apply set_ec3_entry in H. destruct H as (n & r & ->).
  eexists. exists p. split; [reflexivity|]. split; [reflexivity|]. split; [|exact Hd].
  cbn [entry_box se_cfg]. rewrite Hp. reflexivity.
Qed.
Print Assumptions C19_descriptor_ec3_decoded.

(* the hypotheses are satisfiable: 5.1 AC-3 at 384 kbit/s; E-AC-3 with three substreams, the first with a dependent
   substream carrying Lrs/Rrs (7.1); both calls succeed on an audio track *)
Example C19_descriptor_ac3_decoded_hyp :
  let d := mkDac3 0 8 0 7 1 14 in
  dac3_okb d = true /\ dac3_payload d = [16; 61; 192] /\
  match create_empty_trak 1 48000 (BS "audio") (BS "en") with
  | Some t => exists t', set_ac3 t d = (OOk, t')
  | None => False
  end.
Proof. vm_compute. repeat split. eexists. reflexivity. Qed.

Example C19_descriptor_ec3_decoded_hyp :
  let d := mkDec3 768 [mkEc3Sub 0 16 0 0 7 1 1 2; mkEc3Sub 1 16 1 2 2 0 0 0; mkEc3Sub 2 31 0 7 0 1 15 511] in
  dec3_okb d = true /\
  match create_empty_trak 1 48000 (BS "audio") (BS "en") with
  | Some t => exists t', set_ec3 t d = (OOk, t')
  | None => False
  end.
Proof. vm_compute. split; [reflexivity|]. eexists. reflexivity. Qed.
