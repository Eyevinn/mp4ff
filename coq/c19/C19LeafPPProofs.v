(* C19LeafPPProofs.v — leaf_pp / pre_pp (C19PrintParseProofs) for every leaf kind that occurs in an init segment
   built through the API, for all in-range field values. *)
From V.lib Require Import Base.
From V.c19 Require Import C19BoxCodec C19BoxModel.
From V.c19 Require Import C19Model C19RecProofs C19TreeModel C19LeafProofs C19PrintParseProofs.

Ltac lens := rewrite ?lenN_app, ?lenN_be_enc, ?lenN_zeros; cbn [N.of_nat Pos.of_succ_nat Pos.succ]; try lia.

Ltac start_pp :=
  eexists; split; [reflexivity|]; split.

Lemma lpp_mvhd f ts du rate vol nt :
  f < 16777216 -> ts < 4294967296 -> du < 4294967296 -> rate < 4294967296 -> vol < 65536 -> nt < 4294967296 ->
  leaf_pp dec_mvhd (LMvhd 0 f 0 0 ts du rate vol nt).
Proof.
  intros Hf ? ? ? ? ?. start_pp.
  - cbn [dflt_rsv chunk nth N.eqb size_leaf]. lens. change (lenN unity_matrix) with 36. lia.
  - intros r2. cbn [dflt_rsv N.eqb chunk nth]. hide_chunks. destruct (vf0 f Hf) as (J & V & F). rewrite J. rewrite <- !app_assoc.
    unfold dec_mvhd, pbind, pret. rewrite rd4 by lia. rewrite V. cbn [N.eqb]. pp. rewrite F. reflexivity.
Qed.

Lemma lpp_trex f tid dsdi dur sz sf :
  f < 16777216 -> tid < 4294967296 -> dsdi < 4294967296 -> dur < 4294967296 -> sz < 4294967296 -> sf < 4294967296 ->
  leaf_pp dec_trex (LTrex 0 f tid dsdi dur sz sf).
Proof.
  intros Hf ? ? ? ? ?. start_pp.
  - cbn [size_leaf]. lens.
  - intros r2. destruct (vf0 f Hf) as (J & V & F). rewrite J. rewrite <- !app_assoc.
    unfold dec_trex, pbind, pret. pp. rewrite V, F. reflexivity.
Qed.

Lemma lpp_tkhd f tid du layer ag vol wd ht :
  f < 16777216 -> tid < 4294967296 -> du < 4294967296 -> layer < 65536 -> ag < 65536 -> vol < 65536 ->
  wd < 4294967296 -> ht < 4294967296 ->
  leaf_pp dec_tkhd (LTkhd 0 f 0 0 tid du layer ag vol wd ht).
Proof.
  intros Hf ? ? ? ? ? ? ?. start_pp.
  - cbn [dflt_rsv chunk nth N.eqb size_leaf]. lens. change (lenN unity_matrix) with 36. lia.
  - intros r2. cbn [dflt_rsv N.eqb chunk nth]. hide_chunks. destruct (vf0 f Hf) as (J & V & F). rewrite J. rewrite <- !app_assoc.
    unfold dec_tkhd, pbind, pret. rewrite rd4 by lia. rewrite V. cbn [N.eqb]. pp. rewrite F. reflexivity.
Qed.

Lemma lpp_mdhd f ts du lang :
  f < 16777216 -> ts < 4294967296 -> du < 4294967296 -> lang < 65536 ->
  leaf_pp dec_mdhd (LMdhd 0 f 0 0 ts du lang).
Proof.
  intros Hf ? ? ?. start_pp.
  - cbn [dflt_rsv chunk nth N.eqb size_leaf]. lens.
  - intros r2. cbn [dflt_rsv N.eqb chunk nth]. hide_chunks. destruct (vf0 f Hf) as (J & V & F). rewrite J. rewrite <- !app_assoc.
    unfold dec_mdhd, pbind, pret, pfail. rewrite rd4 by lia. rewrite V. cbn [N.eqb N.ltb N.compare]. pp. rewrite F. reflexivity.
Qed.

Lemma ppp_stsd f cnt : f < 16777216 -> cnt < 4294967296 -> pre_pp dec_stsd (LStsd 0 f cnt).
Proof.
  intros Hf ?. start_pp.
  - cbn [size_leaf]. lens.
  - intros sz r2. destruct (vf0 f Hf) as (J & V & F). rewrite J. rewrite <- !app_assoc.
    unfold dec_stsd, pbind, pret. pp. rewrite V, F. reflexivity.
Qed.

Lemma ppp_dref f cnt : f < 16777216 -> cnt < 4294967296 -> pre_pp dec_dref (LDref 0 f cnt).
Proof.
  intros Hf Hc. start_pp.
  - cbn [size_leaf]. lens.
  - intros sz r2. destruct (vf0 f Hf) as (J & V & F). rewrite J. rewrite <- !app_assoc.
    unfold dec_dref, pbind, pret. pp. rewrite V, F. reflexivity.
Qed.

(* compressor names of at most 31 bytes (CreateVisualSampleEntryBox: "mp4ff video packager", 20 bytes) *)
Lemma ppp_visual name dri w ht hres vres fc cn :
  dri < 65536 -> w < 65536 -> ht < 65536 -> hres < 4294967296 -> vres < 4294967296 -> fc < 65536 -> lenN cn <= 31 ->
  pre_pp dec_visual (LVisual name dri w ht hres vres fc cn).
Proof.
  intros ? ? ? ? ? ? ?. assert (Hp : vis_pad (lenN cn) = 31 - lenN cn) by (unfold vis_pad, u8; lia). start_pp.
  - cbn [dflt_rsv chunk nth size_leaf]. lens.
    rewrite N2Nat.id, Hp. change (lenN [0; 24]) with 2. change (lenN [255; 255]) with 2. lia.
  - intros sz r2. cbn [dflt_rsv chunk nth]. rewrite <- !app_assoc.
    unfold dec_visual, pbind, pret, pfail. pp.
    replace (31 <? lenN cn) with false by (symmetry; apply N.ltb_ge; lia).
    rewrite (rdB_app (lenN cn) cn) by reflexivity.
    rewrite (rdB_app (31 - lenN cn)) by (rewrite lenN_zeros, Hp; lia).
    pp. cbn [h_name hdr8]. reflexivity.
Qed.

Lemma ppp_audio name dri ch ss sr :
  dri < 65536 -> ch < 65536 -> ss < 65536 -> sr < 65536 -> pre_pp dec_audio (LAudio name dri ch ss sr).
Proof.
  intros ? ? ? ?. start_pp.
  - cbn [dflt_rsv chunk nth size_leaf]. lens.
  - intros sz r2. cbn [dflt_rsv chunk nth]. hide_chunks. rewrite <- !app_assoc.
    unfold dec_audio, pbind, pret. pp. reflexivity.
Qed.

Lemma lpp_vmhd f m c0 c1 c2 :
  f < 16777216 -> m < 65536 -> c0 < 65536 -> c1 < 65536 -> c2 < 65536 -> leaf_pp dec_vmhd (LVmhd 0 f m c0 c1 c2).
Proof.
  intros Hf ? ? ? ?. start_pp.
  - cbn [size_leaf]. lens.
  - intros r2. destruct (vf0 f Hf) as (J & V & F). rewrite J. rewrite <- !app_assoc.
    unfold dec_vmhd, pbind, pret. pp. rewrite V, F. reflexivity.
Qed.

Lemma lpp_smhd f b : f < 16777216 -> b < 65536 -> leaf_pp dec_smhd (LSmhd 0 f b).
Proof.
  intros Hf ?. start_pp.
  - cbn [dflt_rsv chunk nth size_leaf]. lens.
  - intros r2. cbn [dflt_rsv chunk nth]. hide_chunks. destruct (vf0 f Hf) as (J & V & F). rewrite J. rewrite <- !app_assoc.
    unfold dec_smhd, pbind, pret. pp. rewrite V, F. reflexivity.
Qed.

Lemma lpp_fullonly name f : f < 16777216 -> leaf_pp dec_fullonly (LFullOnly name 0 f).
Proof.
  intros Hf. start_pp.
  - cbn [size_leaf]. lens.
  - intros r2. destruct (vf0 f Hf) as (J & V & F). rewrite J.
    unfold dec_fullonly, pbind, pret. pp. rewrite V, F. reflexivity.
Qed.

(* url without location (CreateURLBox) *)
Lemma lpp_url f : f < 16777216 -> leaf_pp dec_url (LUrl 0 f [] true false).
Proof.
  intros Hf. start_pp.
  - cbn [size_leaf]. cbv iota. rewrite app_nil_r. lens.
  - intros r2. destruct (vf0 f Hf) as (J & V & F). rewrite J. cbv iota. rewrite app_nil_r.
    unfold dec_url, pbind, pret. pp. rewrite V, F. reflexivity.
Qed.

(* empty sample tables *)
Lemma lpp_stts f : f < 16777216 -> leaf_pp dec_stts (LStts 0 f []).
Proof.
  intros Hf. start_pp.
  - vm_compute. reflexivity.
  - intros r2. destruct (vf0 f Hf) as (J & V & F). rewrite J. cbn [lenN length N.of_nat flat_map]. rewrite app_nil_r, <- !app_assoc.
    unfold dec_stts, pbind, pret, pfail. pp. cbn [h_size hdr8 size_leaf lenN length N.of_nat].
    change (u32 0) with 0. cbn [N.mul N.add N.eqb Pos.eqb negb rd_many]. rewrite V, F. reflexivity.
Qed.

Lemma lpp_stsc f : f < 16777216 -> leaf_pp dec_stsc (LStsc 0 f [] 0 []).
Proof.
  intros Hf. start_pp.
  - vm_compute. reflexivity.
  - intros r2. destruct (vf0 f Hf) as (J & V & F). rewrite J. cbn [lenN length N.of_nat wr_stsc]. rewrite app_nil_r, <- !app_assoc.
    unfold dec_stsc, pbind, pret, pfail. pp. cbn [h_size hdr8 size_leaf lenN length N.of_nat].
    cbn [N.mul N.add N.eqb Pos.eqb negb rd_many map stsc_ids]. rewrite V, F. reflexivity.
Qed.

Lemma lpp_stsz f : f < 16777216 -> leaf_pp dec_stsz (LStsz 0 f 0 0 []).
Proof.
  intros Hf. start_pp.
  - vm_compute. reflexivity.
  - intros r2. destruct (vf0 f Hf) as (J & V & F). rewrite J. cbn [N.ltb N.compare flat_map]. rewrite ?app_nil_r, <- ?app_assoc.
    unfold dec_stsz, pbind, pret, pfail. pp. cbn [h_size hdr8 size_leaf N.ltb N.compare].
    cbn [N.mul N.add N.eqb Pos.eqb negb rd_many]. rewrite V, F. reflexivity.
Qed.

Lemma lpp_tab name f : f < 16777216 -> leaf_pp (dec_tab 4) (LTab name 4 0 f []).
Proof.
  intros Hf. start_pp.
  - vm_compute. reflexivity.
  - intros r2. destruct (vf0 f Hf) as (J & V & F). rewrite J. cbn [lenN length N.of_nat flat_map]. rewrite app_nil_r, <- !app_assoc.
    unfold dec_tab, pbind, pret, pfail. pp. cbn [h_size h_name hdr8 size_leaf lenN length N.of_nat leaf_name].
    change (u32 0) with 0. cbn [N.mul N.add N.eqb Pos.eqb negb rd_many]. rewrite V, F. reflexivity.
Qed.

Lemma lpp_ftyp name data : 8 <= lenN data -> leaf_pp dec_ftyp (LFtyp name data).
Proof.
  intros Hd. start_pp.
  - cbn [size_leaf]. lia.
  - intros r2. unfold dec_ftyp, pbind, pret, pfail, payload_len. cbn [h_size h_len hdr8 size_leaf leaf_name].
    replace (8 + lenN data - 8) with (lenN data) by lia.
    replace (lenN data <? 8) with false by (symmetry; apply N.ltb_ge; lia).
    rewrite rdB_app by reflexivity. reflexivity.
Qed.

(* hdlr with a zero-terminated name (CreateHdlr): any name, 4-byte handler type *)
Lemma last_snoc (l : list N) x d : last (l ++ [x]) d = x.
Proof. induction l as [|a l IH]; [reflexivity|]. cbn [app]. destruct (l ++ [x]) eqn:E; [destruct l; discriminate|]. exact IH. Qed.
Lemma removelast_snoc (l : list N) x : removelast (l ++ [x]) = l.
Proof. apply removelast_last. Qed.

Lemma lpp_hdlr f pd ht name :
  f < 16777216 -> pd < 4294967296 -> lenN ht = 4 -> leaf_pp dec_hdlr (LHdlr 0 f pd ht name false).
Proof.
  intros Hf Hp Hh. start_pp.
  - cbn [dflt_rsv chunk nth size_leaf]. lens. change (lenN [0]) with 1. lia.
  - intros r2. cbn [dflt_rsv chunk nth]. hide_chunks. destruct (vf0 f Hf) as (J & V & F). rewrite J. rewrite <- !app_assoc.
    unfold dec_hdlr, pbind, pret, payload_len. cbn [h_size h_len hdr8 size_leaf]. rewrite Hh.
    pp.
    replace (24 <? 8 + 20 + 4 + lenN name + 1 - 0 - 8) with true by (symmetry; apply N.ltb_lt; lia).
    replace (8 + 20 + 4 + lenN name + 1 - 0 - 8 - 24) with (lenN (name ++ [0])) by (rewrite lenN_app; change (lenN [0]) with 1; lia).
    rewrite (app_assoc name [0] r2), rdB_app by reflexivity.
    rewrite last_snoc, N.eqb_refl, removelast_snoc, V, F. reflexivity.
Qed.

Lemma rd_nalu_wr a r : lenN a < 65536 -> rd_nalu (wr_nalu a ++ r) = Ok (a, r).
Proof.
  intros H. unfold rd_nalu, wr_nalu, pbind. rewrite <- app_assoc. rewrite rd2 by lia. rewrite rdB_app by reflexivity. reflexivity.
Qed.

Lemma rd_many_forall {A} (p : parser A) (e : A -> list N) (ok : A -> Prop) :
  (forall a r, ok a -> p (e a ++ r) = Ok (a, r)) ->
  forall l r fuel, Forall ok l -> (length l <= fuel)%nat -> rd_many fuel (lenN l) p (flat_map e l ++ r) = Ok (l, r).
Proof.
  intros Hp. induction l as [|a t IH]; intros r fuel Hall Hf.
  - destruct fuel; reflexivity.
  - destruct fuel as [|f]; [cbn in Hf; lia|]. cbn [rd_many flat_map]. rewrite lenN_cons.
    replace (1 + lenN t =? 0) with false by (symmetry; apply N.eqb_neq; lia).
    inversion Hall; subst. rewrite <- app_assoc, Hp by assumption. replace (1 + lenN t - 1) with (lenN t) by lia.
    rewrite IH by (try assumption; cbn in Hf; lia). reflexivity.
Qed.

Lemma lenN_nalus l : lenN (flat_map wr_nalu l) = sumN (map (fun x => 2 + lenN x) l).
Proof.
  induction l as [|a l IH]; [reflexivity|]. cbn [flat_map map sumN]. rewrite lenN_app, IH. unfold wr_nalu.
  rewrite lenN_app, lenN_be_enc. cbn [N.of_nat Pos.of_succ_nat Pos.succ]. lia.
Qed.

Definition nalu16 (a : list N) : Prop := lenN a < 65536.

(* a byte (or 16-bit word) made of a constant a above a field c of n bits: the decoder's mod and div return c and a *)
Lemma packed a c n : c < 2 ^ n ->
  N.lor (a * 2 ^ n) c mod 2 ^ n = c /\ N.lor (a * 2 ^ n) c / 2 ^ n = a /\ N.lor (a * 2 ^ n) c < (a + 1) * 2 ^ n.
Proof. intros H. destruct (lor_fields a c n H) as (E & M & D). rewrite E at 3. repeat split; try assumption.
  rewrite N.mul_add_distr_r, N.mul_1_l. apply N.add_lt_mono_l. exact H.
Qed.

Lemma b5_mod n : n < 32 -> N.lor (u8 n) (7 * 32) mod 32 = n /\ N.lor (u8 n) (7 * 32) / 32 = 7 /\ N.lor (u8 n) (7 * 32) < 256.
Proof. intros H. unfold u8. rewrite (N.mod_small n 256), N.lor_comm by lia. exact (packed 7 n 5 H). Qed.
Lemma tr4 c : c < 4 -> N.lor (63 * 4) c mod 4 = c /\ N.lor (63 * 4) c / 4 = 63 /\ N.lor (63 * 4) c < 256.
Proof. exact (packed 63 c 2). Qed.
Lemma tr8 c : c < 8 -> N.lor (31 * 8) c mod 8 = c /\ N.lor (31 * 8) c / 8 = 31 /\ N.lor (31 * 8) c < 256.
Proof. exact (packed 31 c 3). Qed.
Lemma mss_ok m : m < 4096 -> N.lor (15 * 4096) m mod 4096 = m /\ N.lor (15 * 4096) m / 4096 = 15 /\ N.lor (15 * 4096) m < 65536.
Proof. exact (packed 15 m 12). Qed.

(* the record as the box holds it: trailing fields only when they are written *)
Definition avcc_fields_ok (p cf bl bc ne : N) (nt : bool) : Prop :=
  if avc_plain p then cf = 0 /\ bl = 0 /\ bc = 0 /\ ne = 0 /\ nt = false
  else if nt then cf = 0 /\ bl = 0 /\ bc = 0 /\ ne = 0
  else cf < 4 /\ bl < 8 /\ bc < 8 /\ ne = 0.

Lemma avcc_rec_pp p c l sps pps cf bl bc ne nt b :
  p < 256 -> c < 256 -> l < 256 -> lenN sps < 32 -> lenN pps < 256 -> Forall nalu16 sps -> Forall nalu16 pps ->
  avcc_fields_ok p cf bl bc ne nt ->
  body_leaf (LAvcC p c l sps pps cf bl bc ne nt) (dflt_rsv (LAvcC p c l sps pps cf bl bc ne nt)) = Ok b ->
  avcc_rec b = Ok ((LAvcC p c l sps pps cf bl bc ne nt, [[63]; [7]; [63]; [31]; [31]]), []).
Proof.
  intros Hp Hc Hl Hs Hq Fs Fp Hok Hb. cbn [body_leaf dflt_rsv chunk nth hd] in Hb. getb Hb.
  destruct (b5_mod (lenN sps) Hs) as (B1 & B2 & B3).
  unfold avcc_rec, pbind, pret, pfail. rewrite <- ?app_assoc.
  rewrite rd1 by lia. change (negb (1 =? 1)) with false. cbv beta iota.
  rewrite !rd1 by (try assumption; vm_compute; reflexivity).
  change (N.lor 3 (63 * 4) mod 4 =? 3) with true. cbn [negb]. cbv beta iota.
  rewrite rd1 by exact B3. rewrite B1.
  rewrite (rd_many_forall rd_nalu wr_nalu nalu16 rd_nalu_wr sps) by (try assumption; unfold lenN in Hs; lia).
  rewrite rd1 by assumption.
  rewrite (rd_many_forall rd_nalu wr_nalu nalu16 rd_nalu_wr pps) by (try assumption; unfold lenN in Hq; lia).
  change (N.lor 3 (63 * 4) / 4) with 63. rewrite B2.
  unfold avcc_fields_ok in Hok. destruct (avc_plain p) eqn:Epl.
  - destruct Hok as (-> & -> & -> & -> & ->). cbn [orb app]. reflexivity.
  - destruct nt.
    + destruct Hok as (-> & -> & -> & ->). cbn [orb app]. reflexivity.
    + destruct Hok as (H1 & H2 & H3 & ->). cbn [orb]. rewrite app_nil_r.
      destruct (tr4 cf H1) as (T1 & T2 & T3). destruct (tr8 bl H2) as (U1 & U2 & U3). destruct (tr8 bc H3) as (V1 & V2 & V3).
      assert (Hne : be_enc 1 (N.lor (63 * 4) cf) ++ be_enc 1 (N.lor (31 * 8) bl) ++ be_enc 1 (N.lor (31 * 8) bc) ++ be_enc 1 0 <> []).
      { intros E. apply (f_equal (@length N)) in E. rewrite !app_length, !length_be_enc in E. discriminate. }
      destruct (be_enc 1 (N.lor (63 * 4) cf) ++ be_enc 1 (N.lor (31 * 8) bl) ++ be_enc 1 (N.lor (31 * 8) bc) ++ be_enc 1 0) eqn:Et; [congruence|].
      rewrite <- Et. rewrite <- (app_nil_r (be_enc 1 0)).
      rewrite rd1 by exact T3. rewrite rd1 by exact U3. rewrite rd1 by exact V3. rewrite rd1 by reflexivity.
      change (negb (0 =? 0)) with false. cbv iota. rewrite T1, T2, U1, U2, V1, V2. reflexivity.
Qed.

Lemma lpp_avcC p c l sps pps cf bl bc ne nt :
  p < 256 -> c < 256 -> l < 256 -> lenN sps < 32 -> lenN pps < 256 -> Forall nalu16 sps -> Forall nalu16 pps ->
  avcc_fields_ok p cf bl bc ne nt ->
  leaf_pp dec_avcC (LAvcC p c l sps pps cf bl bc ne nt).
Proof.
  intros Hp Hc Hl Hs Hq Fs Fp Hok.
  assert (Hsz : forall b, body_leaf (LAvcC p c l sps pps cf bl bc ne nt) (dflt_rsv (LAvcC p c l sps pps cf bl bc ne nt)) = Ok b ->
                          lenN b + 8 = size_leaf (LAvcC p c l sps pps cf bl bc ne nt)).
  { intros b Hb. cbn [body_leaf dflt_rsv chunk nth hd] in Hb. getb Hb. cbn [size_leaf].
    rewrite !lenN_app, !lenN_nalus, !lenN_be_enc. cbn [N.of_nat Pos.of_succ_nat Pos.succ].
    unfold avcc_fields_ok in Hok. destruct (avc_plain p); cbn [orb]; [change (lenN (@nil N)) with 0; lia|].
    destruct nt; [change (lenN (@nil N)) with 0; lia|]. rewrite !lenN_app, !lenN_be_enc. cbn [N.of_nat Pos.of_succ_nat Pos.succ].
    change (lenN (@nil N)) with 0. lia. }
  eexists. split; [reflexivity|]. split; [apply Hsz; reflexivity|].
  intros r2. unfold dec_avcC, pbind, payload_len. cbn [h_size h_len hdr8].
  match goal with |- context [rdB _ (?b ++ r2)] => replace (size_leaf (LAvcC p c l sps pps cf bl bc ne nt) - 8) with (lenN b)
      by (pose proof (Hsz b eq_refl); lia) end.
  rewrite rdB_app by reflexivity.
  rewrite (avcc_rec_pp p c l sps pps cf bl bc ne nt) by (try assumption; reflexivity). reflexivity.
Qed.

Definition narr_ok (a : N * list (list N)) : Prop := fst a < 256 /\ lenN (snd a) < 65536 /\ Forall nalu16 (snd a).

Lemma length_nalus l r : (length l <= length (flat_map wr_nalu l ++ r))%nat.
Proof.
  induction l as [|a l IH]; [cbn; lia|]. cbn [flat_map length]. unfold wr_nalu at 1.
  rewrite <- !app_assoc, !app_length, length_be_enc. rewrite app_length in IH. lia.
Qed.

Lemma rd_narr_wr a r : narr_ok a -> rd_narr (wr_narr a ++ r) = Ok (a, r).
Proof.
  intros (H1 & H2 & H3). destruct a as [ct nalus]. cbn [fst snd] in *.
  unfold rd_narr, wr_narr, pbind, pret. cbn [fst snd]. rewrite <- !app_assoc.
  rewrite rd1 by exact H1. rewrite rd2 by exact H2.
  rewrite (rd_many_forall rd_nalu wr_nalu nalu16 rd_nalu_wr nalus) by (try assumption; pose proof (length_nalus nalus r); lia).
  reflexivity.
Qed.

Lemma lenN_narrs l : lenN (flat_map wr_narr l) = sumN (map (fun a => 3 + sumN (map (fun x => 2 + lenN x) (snd a))) l).
Proof.
  induction l as [|a l IH]; [reflexivity|]. cbn [flat_map map sumN]. rewrite lenN_app, IH. unfold wr_narr.
  rewrite !lenN_app, !lenN_be_enc, lenN_nalus. cbn [N.of_nat Pos.of_succ_nat Pos.succ]. lia.
Qed.

(* bytes 1 and 21 of the record as hvcc_rec reads them, by div and mod *)
Lemma hb1_fields sp (tier : bool) idc : sp < 4 -> idc < 32 ->
  let a := N.lor (N.lor (u8 (sp * 64)) (if tier then 32 else 0)) idc in
  (a / 64) mod 4 = sp /\ ((a / 32) mod 2 =? 1) = tier /\ a mod 32 = idc /\ a < 256.
Proof. intros Hs Hi a. subst a. rewrite hb1_val by assumption. destruct tier; repeat split; lia. Qed.

Lemma hb21_fields cfr ntl tin : cfr < 4 -> ntl < 8 -> tin < 2 ->
  let b := N.lor (N.lor (N.lor (u8 (cfr * 64)) (u8 (ntl * 8))) (u8 (tin * 4))) 3 in
  b mod 4 = 3 /\ (b / 64) mod 4 = cfr /\ (b / 8) mod 8 = ntl /\ (b / 4) mod 2 = tin /\ b < 256.
Proof. intros H1 H2 H3 b. subst b. rewrite hb21_val by assumption. repeat split; lia. Qed.

Lemma hvcc_rec_pp sp tier idc compat cstr lvl mss par chroma bdl bdc afr cfr ntl tin arrays b :
  sp < 4 -> idc < 32 -> compat < 4294967296 -> cstr < 281474976710656 -> lvl < 256 -> mss < 4096 -> par < 4 ->
  chroma < 4 -> bdl < 8 -> bdc < 8 -> afr < 65536 -> cfr < 4 -> ntl < 8 -> tin < 2 ->
  lenN arrays < 256 -> Forall narr_ok arrays ->
  body_leaf (LHvcC sp tier idc compat cstr lvl mss par chroma bdl bdc afr cfr ntl tin arrays)
            (dflt_rsv (LHvcC sp tier idc compat cstr lvl mss par chroma bdl bdc afr cfr ntl tin arrays)) = Ok b ->
  hvcc_rec b = Ok ((LHvcC sp tier idc compat cstr lvl mss par chroma bdl bdc afr cfr ntl tin arrays,
                    [[15]; [63]; [63]; [31]; [31]]), []).
Proof.
  intros H1 H2 H3 H4 H5 H6 H7 H8 H9 H10 H11 H12 H13 H14 H15 Fa Hb.
  cbn [body_leaf dflt_rsv chunk nth hd] in Hb. getb Hb.
  assert (Hna : (length arrays <= 256)%nat) by (unfold lenN in H15; lia).
  destruct (hb1_fields sp tier idc H1 H2) as (S1 & T1 & I1 & A1).
  destruct (hb21_fields cfr ntl tin H12 H13 H14) as (L1 & C1 & N1 & X1 & B1). cbv zeta in *.
  destruct (mss_ok mss H6) as (M1 & M2 & M3).
  destruct (tr4 par H7) as (P1 & P2 & P3). destruct (tr4 chroma H8) as (Q1 & Q2 & Q3).
  destruct (tr8 bdl H9) as (D1 & D2 & D3). destruct (tr8 bdc H10) as (E1 & E2 & E3).
  unfold hvcc_rec, pbind, pret, pfail. rewrite <- ?app_assoc. rewrite app_nil_r.
  rewrite rd1 by reflexivity. change (negb (1 =? 1)) with false. cbv beta iota.
  rewrite rd1 by assumption. rewrite rd4 by assumption.
  rewrite (rd_be 6 cstr) by (change (256 ^ N.of_nat 6) with 281474976710656; assumption).
  rewrite rd1 by assumption. rewrite rd2 by assumption.
  rewrite rd1 by assumption. rewrite rd1 by assumption. rewrite rd1 by assumption. rewrite rd1 by assumption.
  rewrite rd2 by assumption. rewrite rd1 by assumption.
  rewrite L1. change (negb (3 =? 3)) with false. cbv beta iota.
  rewrite rd1 by assumption.
  rewrite <- (app_nil_r (flat_map wr_narr arrays)).
  rewrite (rd_many_forall rd_narr wr_narr narr_ok rd_narr_wr arrays) by assumption.
  rewrite S1, T1, I1, C1, N1, X1, M1, M2, P1, P2, Q1, Q2, D1, D2, E1, E2. reflexivity.
Qed.

Lemma lpp_hvcC sp tier idc compat cstr lvl mss par chroma bdl bdc afr cfr ntl tin arrays :
  sp < 4 -> idc < 32 -> compat < 4294967296 -> cstr < 281474976710656 -> lvl < 256 -> mss < 4096 -> par < 4 ->
  chroma < 4 -> bdl < 8 -> bdc < 8 -> afr < 65536 -> cfr < 4 -> ntl < 8 -> tin < 2 ->
  lenN arrays < 256 -> Forall narr_ok arrays ->
  leaf_pp dec_hvcC (LHvcC sp tier idc compat cstr lvl mss par chroma bdl bdc afr cfr ntl tin arrays).
Proof.
  intros H1 H2 H3 H4 H5 H6 H7 H8 H9 H10 H11 H12 H13 H14 H15 Fa.
  set (L := LHvcC sp tier idc compat cstr lvl mss par chroma bdl bdc afr cfr ntl tin arrays).
  assert (Hsz : forall b, body_leaf L (dflt_rsv L) = Ok b -> lenN b + 8 = size_leaf L).
  { intros b Hb. subst L. cbn [body_leaf dflt_rsv chunk nth hd] in Hb. getb Hb. cbn [size_leaf].
    rewrite !lenN_app, lenN_narrs, !lenN_be_enc. cbn [N.of_nat Pos.of_succ_nat Pos.succ].
    change (lenN (@nil N)) with 0. lia. }
  eexists. split; [reflexivity|]. split; [apply Hsz; reflexivity|].
  intros r2. unfold dec_hvcC, pbind, payload_len. cbn [h_size h_len hdr8].
  match goal with |- context [rdB _ (?b ++ r2)] => replace (size_leaf L - 8) with (lenN b)
      by (pose proof (Hsz b eq_refl); lia) end.
  rewrite rdB_app by reflexivity. subst L.
  rewrite (hvcc_rec_pp sp tier idc compat cstr lvl mss par chroma bdl bdc afr cfr ntl tin arrays) by (try assumption; reflexivity).
  reflexivity.
Qed.

Lemma zt_lang lang r : Forall (fun c => c <> 0) lang -> zt (lang ++ 0 :: r) (lenN lang + 1) = Ok (lang, r).
Proof.
  induction lang as [|c lang IH]; intros H.
  - cbn [app zt]. change (lenN (@nil N) + 1 =? 0) with false. cbv iota. rewrite N.eqb_refl. reflexivity.
  - inversion H; subst. cbn [app zt]. rewrite lenN_cons.
    replace (1 + lenN lang + 1 =? 0) with false by (symmetry; apply N.eqb_neq; lia).
    replace (c =? 0) with false by (symmetry; apply N.eqb_neq; assumption).
    replace (1 + lenN lang + 1 - 1) with (lenN lang + 1) by lia. rewrite IH by assumption. reflexivity.
Qed.

Lemma lpp_elng lang : 2 <= lenN lang -> Forall (fun c => c <> 0) lang -> leaf_pp dec_elng (LElng false 0 0 lang).
Proof.
  intros Hl Hn. start_pp.
  - cbn [dflt_rsv chunk nth size_leaf]. lens. change (lenN [0]) with 1. lia.
  - intros r2. cbn [dflt_rsv chunk nth]. unfold dec_elng, pbind, pret, pfail, payload_len, rd_zt. cbn [h_size h_len hdr8 size_leaf].
    replace (8 + 4 + lenN lang + 1 - 0 - 8 <? 7) with false by (symmetry; apply N.ltb_ge; lia).
    change (N.lor (u32 (0 * 16777216)) 0) with 0. rewrite <- !app_assoc. rewrite rd4 by lia.
    change (negb (0 =? 0)) with false. cbv beta iota.
    replace (8 + 4 + lenN lang + 1 - 0 - 8 - 4) with (lenN lang + 1) by lia.
    cbn [app]. rewrite zt_lang by assumption. reflexivity.
Qed.
