(* C19ScopeProofs.v — why the invariant is stated for histories that start from CreateEmptyInit:
   on an init obtained by decoding, AddEmptyTrack can break it (C19_decoded_duplicate_id_refuted and
   C19_decoded_not_contiguous_refuted in C19Theorems.v: observations outside the property's quantifier, reproduced on
   the real code by the harness, reported in the evidence notes). *)
From Coq Require Import String Ascii.
From V.lib Require Import Base.
From V.c19 Require Import C19Model C19Spec.

Definition some_trak (id : N) : trak := mkTrak id 0 0 0 1000 21956 (BS "vide") (BS "mp4ff video handler") None Vmhd [].

(* a decoded moov {mvhd, trak, mvex}: with the trak in the middle the insertion branch keeps the traks together *)
Lemma add_after_decode_middle :
  exists s s', s = mkSt [MCmvhd; MCtrak 0; MCmvex] [some_trak 1] [1] 2
               /\ add_empty_track s 1000 (BS "audio") (BS "eng") = (OOk, s')
               /\ children s' = [MCmvhd; MCtrak 0; MCtrak 1; MCmvex].
Proof. eexists. eexists. split; [reflexivity|]. vm_compute. repeat split; reflexivity. Qed.
