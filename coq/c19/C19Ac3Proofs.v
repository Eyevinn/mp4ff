(* C19Ac3Proofs.v — the AC-3 / Enhanced AC-3 configuration boxes written for Set{AC3,EC3}Descriptor decode, with the
   real decoders' algorithm (C19Ac3Model over C13's bits.Reader model), to the configuration supplied:
   for EVERY configuration whose fields fit their bits (any number 1..8 of substreams).  The bit level is C13's:
   run_plain_stream (what the writer leaves), read_plain_prefix (what one Read returns). *)
From V.lib Require Import Base.
From V.c13 Require Import C13Spec C13Model C13Bits C13WriterProofs C13ReaderProofs C13RoundTrip C13PlainProofs.
From V.c19 Require Import C19Model C19TreeModel C19Ac3Model.

(* Flush: the pending bits, left-aligned and zero-padded, become one more byte; fewer than 8 padding bits
   (C13PlainProofs.flush_plain_out with the length of the padding) *)
Lemma flush_plain_out_pad s cur :
  PStream s cur ->
  exists pad, bytes_to_bits (wout (flush_plain s)) = cur ++ pad /\ (length pad < 8)%nat /\
              Forall lt256 (wout (flush_plain s)).
Proof.
  intros [raw [[Hn [Hlt Ho]] Hc]]. unfold flush_plain.
  destruct (N.eqb_spec (wn s) 0) as [E|E].
  - exists []. unfold wout. rewrite Ho, rev_involutive, app_nil_r. split; [|split; [cbn; lia|exact Hlt]].
    unfold pending in Hc. rewrite E in Hc. cbn [N.to_nat bits_of] in Hc. rewrite app_nil_r in Hc. exact Hc.
  - exists (repeat false (8 - N.to_nat (wn s))). unfold wout. cbn [wrev]. rewrite Ho. cbn [rev].
    rewrite rev_involutive. split; [|split].
    + rewrite bytes_to_bits_app, <- Hc, <- app_assoc. f_equal.
      unfold bytes_to_bits. cbn [flat_map]. rewrite app_nil_r. unfold pending.
      assert (Hz : forall k, bits_of k 0 = repeat false k).
      { induction k as [|k IHk]; [reflexivity|]. cbn [bits_of repeat]. rewrite N.bits_0, IHk. reflexivity. }
      rewrite <- Hz.
      replace 8%nat with (N.to_nat (wn s) + (8 - N.to_nat (wn s)))%nat at 1 by lia.
      apply bits_of_app_ext.
      * intros i Hi. rewrite N.land_spec. change 255 with (N.ones 8).
        rewrite N.ones_spec_low by lia. rewrite andb_true_r.
        rewrite N.shiftl_spec_low by lia. rewrite N.bits_0. reflexivity.
      * intros i Hi. rewrite N.land_spec. change 255 with (N.ones 8).
        rewrite N.ones_spec_low by lia. rewrite andb_true_r.
        rewrite N.shiftl_spec_high' by lia. f_equal. lia.
    + rewrite repeat_length. lia.
    + apply Forall_app. split; [exact Hlt|]. constructor; [|constructor].
      unfold lt256. rewrite land_255. apply N.mod_lt. lia.
Qed.

Lemma plain_payload_bits ops :
  forallb plain_op ops = true ->
  exists pad, bytes_to_bits (wout (run_writer_plain (ops ++ [WFlush]))) = concat (map pvbits ops) ++ pad /\
              (length pad < 8)%nat /\ Forall lt256 (wout (run_writer_plain (ops ++ [WFlush]))).
Proof.
  intros Hok. unfold run_writer_plain. rewrite fold_left_app. cbn [fold_left wstep_plain].
  apply flush_plain_out_pad.
  exact (run_plain_stream ops winit [] ltac:(exists []; split; [apply WInv_init|reflexivity]) Hok).
Qed.

Lemma rinit_good data : Forall lt256 data -> RGood (rinit data) /\ pbits (rinit data) = bytes_to_bits data.
Proof.
  intros H. split; [|reflexivity].
  split; [split; [reflexivity|split; [cbn; lia|exact H]]|cbn; lia].
Qed.

(* one Read(w) of a value written with w bits *)
Lemma rd_bits s w v rest :
  RGood s -> w <= 32 -> v < 2 ^ w -> pbits s = bits_of (N.to_nat w) v ++ rest ->
  exists s', read_plain s w = (v, s') /\ pbits s' = rest /\ RGood s'.
Proof.
  intros HG Hw Hv Hb.
  destruct (read_plain_prefix s w _ _ HG ltac:(lia) Hb (bits_of_length _ _)) as [s1 [Hr [Hb1 [HG1 _]]]].
  exists s1. rewrite Hr, val_of_bits_of, N2Nat.id, N.mod_small by exact Hv. auto.
Qed.

Lemma plain_bits v w : w <= 32 -> v < 2 ^ w -> plain_op (WBits v w) = true.
Proof.
  intros Hw Hv. cbn [plain_op]. apply andb_true_iff. split; [apply N.leb_le; exact Hw|apply N.ltb_lt; exact Hv].
Qed.

Ltac pows :=
  change (2 ^ 1) with 2 in *; change (2 ^ 2) with 4 in *; change (2 ^ 3) with 8 in *; change (2 ^ 4) with 16 in *;
  change (2 ^ 5) with 32 in *; change (2 ^ 9) with 512 in *; change (2 ^ 13) with 8192 in *.

(* read the next field: the bit stream of the reader state starts with the w bits of v *)
Ltac rd_next HG HP w v s1 R1 :=
  let HP1 := fresh "HP" in let HG1 := fresh "HG" in
  destruct (rd_bits _ w v _ HG ltac:(lia) ltac:(pows; lia) HP) as [s1 [R1 [HP1 HG1]]];
  rewrite R1; cbv beta iota; clear HP; clear HG; rename HP1 into HP; rename HG1 into HG.

Lemma empty_pbits s : pbits s = [] -> rn s = 0 /\ skipn (N.to_nat (rpos s)) (rdata s) = [].
Proof.
  unfold pbits. intros H. apply app_eq_nil in H. destruct H as [H1 H2].
  apply (f_equal (@length bool)) in H1. rewrite bits_of_length in H1. cbn [length] in H1.
  apply (f_equal (@length bool)) in H2. rewrite bytes_to_bits_length in H2. cbn [length] in H2.
  split; [lia|]. apply length_zero_iff_nil. lia.
Qed.

Lemma dac3_roundtrip d : dac3_okb d = true -> dac3_decode (dac3_payload d) = Ok (d, 0, 0).
Proof.
  destruct d as [fscod bsid bsmod acmod lfeon brc]. unfold dac3_okb. intros H.
  repeat (apply andb_true_iff in H; let H' := fresh "B" in destruct H as [H H']).
  apply N.ltb_lt in H, B, B0, B1, B2, B3.
  unfold dac3_payload.
  set (ops := [WBits fscod 2; WBits bsid 5; WBits bsmod 3; WBits acmod 3; WBits lfeon 1; WBits brc 5; WBits 0 5]).
  change (run_writer_plain _) with (run_writer_plain (ops ++ [WFlush])).
  destruct (plain_payload_bits ops) as [pad [Hb [Hp Hf]]].
  { unfold ops. cbn [forallb]. rewrite !plain_bits by (pows; lia). reflexivity. }
  set (data := wout (run_writer_plain (ops ++ [WFlush]))) in *.
  assert (HL : length data = 3%nat /\ pad = []).
  { pose proof (f_equal (@length bool) Hb) as HL. rewrite bytes_to_bits_length in HL.
    unfold ops in HL. cbn [map concat pvbits] in HL. rewrite !app_length, !bits_of_length in HL.
    cbn [length] in HL.
    change (N.to_nat 2) with 2%nat in HL. change (N.to_nat 5) with 5%nat in HL.
    change (N.to_nat 3) with 3%nat in HL. change (N.to_nat 1) with 1%nat in HL.
    split; [lia|]. apply length_zero_iff_nil. lia. }
  destruct HL as [HL Hpad]. subst pad. rewrite app_nil_r in Hb.
  destruct (rinit_good data Hf) as [HG HP]. rewrite Hb in HP.
  unfold ops in HP. cbn [map concat pvbits] in HP. rewrite <- ?app_assoc in HP. cbn [app] in HP.
  unfold dac3_decode. unfold lenN. rewrite HL.
  change (3 <? N.of_nat 3) with false. cbv beta iota. change (N.to_nat 0) with 0%nat. cbn [dac3_zeros].
  rd_next HG HP 2 fscod s1 R1.
  rd_next HG HP 5 bsid s2 R2.
  rd_next HG HP 3 bsmod s3 R3.
  rd_next HG HP 3 acmod s4 R4.
  rd_next HG HP 1 lfeon s5 R5.
  rd_next HG HP 5 brc s6 R6.
  rd_next HG HP 5 0 s7 R7.
  reflexivity.
Qed.

Lemma ec3sub_plain e : ec3sub_okb e = true -> forallb plain_op (ec3sub_ops e) = true.
Proof.
  destruct e as [fscod bsid asvc bsmod acmod lfeon nds cl]. unfold ec3sub_okb, ec3sub_ops. intros H.
  repeat (apply andb_true_iff in H; let H' := fresh "B" in destruct H as [H H']).
  apply N.ltb_lt in H, B0, B1, B2, B3, B4, B5.
  rewrite forallb_app. cbn [forallb]. rewrite !plain_bits by (pows; lia). cbn [andb].
  destruct (0 <? nds); cbn [forallb].
  - apply N.ltb_lt in B. rewrite plain_bits by (pows; lia). reflexivity.
  - rewrite plain_bits by (pows; lia). reflexivity.
Qed.

Lemma ec3subs_plain subs : forallb ec3sub_okb subs = true -> forallb plain_op (flat_map ec3sub_ops subs) = true.
Proof.
  induction subs as [|e t IH]; intros H; [reflexivity|].
  cbn [forallb] in H. apply andb_true_iff in H. destruct H as [He Ht].
  cbn [flat_map]. rewrite forallb_app, (ec3sub_plain e He), (IH Ht). reflexivity.
Qed.

Lemma ec3sub_bits_len e : exists k, length (concat (map pvbits (ec3sub_ops e))) = (8 * k)%nat.
Proof.
  destruct e as [fscod bsid asvc bsmod acmod lfeon nds cl]. unfold ec3sub_ops.
  rewrite map_app, concat_app, app_length. cbn [map concat pvbits]. rewrite !app_length, !bits_of_length. cbn [length].
  destruct (0 <? nds); cbn [map concat pvbits]; rewrite !app_length, !bits_of_length; cbn [length].
  - exists 4%nat. reflexivity.
  - exists 3%nat. reflexivity.
Qed.

Lemma ec3subs_bits_len subs : exists k, length (concat (map pvbits (flat_map ec3sub_ops subs))) = (8 * k)%nat.
Proof.
  induction subs as [|e t [k IH]]; [exists 0%nat; reflexivity|].
  cbn [flat_map]. rewrite map_app, concat_app, app_length, IH.
  destruct (ec3sub_bits_len e) as [k1 H1]. rewrite H1. exists (k1 + k)%nat. lia.
Qed.

Lemma rd_ec3sub_ok s e rest :
  RGood s -> ec3sub_okb e = true -> pbits s = concat (map pvbits (ec3sub_ops e)) ++ rest ->
  exists s', rd_ec3sub s = (e, s') /\ pbits s' = rest /\ RGood s'.
Proof.
  destruct e as [fscod bsid asvc bsmod acmod lfeon nds cl]. unfold ec3sub_okb, ec3sub_ops. intros HG H HP.
  repeat (apply andb_true_iff in H; let H' := fresh "B" in destruct H as [H H']).
  apply N.ltb_lt in H, B0, B1, B2, B3, B4, B5.
  unfold rd_ec3sub.
  rewrite map_app, concat_app in HP. cbn [app map concat pvbits] in HP. rewrite <- ?app_assoc in HP. cbn [app] in HP.
  rd_next HG HP 2 fscod s1 R1. rd_next HG HP 5 bsid s2 R2. rd_next HG HP 1 0 s3 R3.
  rd_next HG HP 1 asvc s4 R4. rd_next HG HP 3 bsmod s5 R5. rd_next HG HP 3 acmod s6 R6.
  rd_next HG HP 1 lfeon s7 R7. rd_next HG HP 3 0 s8 R8. rd_next HG HP 4 nds s9 R9.
  (* chan_loc (9 bits) next to dependent substreams, one reserved bit otherwise *)
  destruct (0 <? nds) eqn:E; cbn [app map concat pvbits] in HP.
  - apply N.ltb_lt in B. rd_next HG HP 9 cl s10 R10. exists s10. auto.
  - apply N.eqb_eq in B. subst cl. rd_next HG HP 1 0 s10 R10. exists s10. auto.
Qed.

Lemma rd_ec3subs_ok : forall subs s rest,
  RGood s -> forallb ec3sub_okb subs = true ->
  pbits s = concat (map pvbits (flat_map ec3sub_ops subs)) ++ rest ->
  exists s', rd_ec3subs (length subs) s = Some (subs, s') /\ pbits s' = rest /\ RGood s'.
Proof.
  induction subs as [|e t IH]; intros s rest HG H HP.
  - exists s. cbn in HP. cbn [length rd_ec3subs]. auto.
  - cbn [forallb] in H. apply andb_true_iff in H. destruct H as [He Ht].
    cbn [flat_map] in HP. rewrite map_app, concat_app, <- app_assoc in HP.
    destruct (rd_ec3sub_ok s e _ HG He HP) as [s1 [R1 [HP1 HG1]]].
    cbn [length rd_ec3subs]. rewrite R1.
    assert (Herr : rerr s1 = false) by apply HG1. rewrite Herr.
    destruct (IH s1 rest HG1 Ht HP1) as [s2 [R2 [HP2 HG2]]]. rewrite R2. exists s2. auto.
Qed.

Lemma dec3_roundtrip d :
  dec3_okb d = true -> exists p, dec3_payload d = Some p /\ dec3_decode p = Ok (d, []).
Proof.
  destruct d as [dr subs]. unfold dec3_okb. intros H.
  repeat (apply andb_true_iff in H; let H' := fresh "B" in destruct H as [H H']).
  apply N.ltb_lt in H. apply N.leb_le in B1, B0.
  unfold dec3_payload.
  destruct subs as [|e0 t0] eqn:Es; [unfold lenN in B1; cbn in B1; lia|]. rewrite <- Es in *. clear Es e0 t0.
  eexists. split; [reflexivity|].
  set (ops := [WBits dr 13; WBits (lenN subs - 1) 3] ++ flat_map ec3sub_ops subs).
  replace ([WBits dr 13; WBits (lenN subs - 1) 3] ++ flat_map ec3sub_ops subs ++ [WFlush]) with (ops ++ [WFlush])
    by (unfold ops; rewrite <- app_assoc; reflexivity).
  destruct (plain_payload_bits ops) as [pad [Hb [Hp Hf]]].
  { unfold ops. rewrite forallb_app. cbn [forallb]. rewrite !plain_bits by (pows; lia).
    rewrite (ec3subs_plain subs B). reflexivity. }
  set (data := wout (run_writer_plain (ops ++ [WFlush]))) in *.
  assert (Hpad : pad = []).
  { pose proof (f_equal (@length bool) Hb) as HL. rewrite bytes_to_bits_length in HL.
    unfold ops in HL. rewrite map_app, concat_app in HL. cbn [map concat pvbits] in HL.
    rewrite !app_length, !bits_of_length in HL. cbn [length] in HL.
    change (N.to_nat 13) with 13%nat in HL. change (N.to_nat 3) with 3%nat in HL.
    destruct (ec3subs_bits_len subs) as [k Hk]. rewrite Hk in HL.
    apply length_zero_iff_nil. lia. }
  subst pad.
  destruct (rinit_good data Hf) as [HG HP]. rewrite Hb in HP.
  unfold ops in HP. rewrite map_app, concat_app in HP. cbn [map concat pvbits] in HP.
  rewrite <- ?app_assoc in HP. cbn [app] in HP.
  unfold dec3_decode.
  rd_next HG HP 13 dr s1 R1.
  assert (Hn : lenN subs - 1 < 8) by lia.
  destruct (rd_bits _ 3 (lenN subs - 1) _ HG ltac:(lia) ltac:(pows; lia) HP) as [s2 [R2 [HP2 HG2]]].
  rewrite R2. cbv beta iota.
  replace (N.to_nat (lenN subs - 1 + 1)) with (length subs) by (unfold lenN in *; lia).
  destruct (rd_ec3subs_ok subs s2 [] HG2 B HP2) as [s3 [R3 [HP3 HG3]]].
  rewrite R3. cbv beta iota.
  destruct (empty_pbits s3 HP3) as [Hrn Hsk].
  assert (Herr : rerr s3 = false) by apply HG3.
  unfold read_remaining. rewrite Herr, Hrn, Hsk. change (0 =? 0) with true. cbv beta iota. cbn [rerr].
  reflexivity.
Qed.
