(* C19RecLinkProofs.v — the configuration records that CreateAVCDecConfRec / CreateHEVCDecConfRec build from in-range
   parser answers and parameter-set lists that fit the count and length fields satisfy avcrec_ok / hvcrec_ok: what links
   a successful Set{AVC,HEVC}Descriptor call to the record round trips (C19_descriptor_avc_record /
   C19_descriptor_hevc_record) and to the argument ranges of C19_args_ok. *)
From V.lib Require Import Base.
From V.c19 Require Import C19Model C19DescProofs C19RecModel.

(* parameter-set lists that fit the record's count and length fields *)
Definition nalus_fit (maxcount : N) (l : list str) : bool := (lenN l <? maxcount) && forallb nalu_ok l.

Lemma fit_split m l : nalus_fit m l = true -> lenN l < m /\ forallb nalu_ok l = true.
Proof. unfold nalus_fit. intros H. apply andb_true_iff in H. destruct H as [H1 H2]. apply N.ltb_lt in H1. tauto. Qed.

(* ranges of the values hevc.ParseSPSNALUnit reports for a valid SPS: profile space (2 bits), tier flag, profile idc
   (5 bits), compatibility flags (32 bits), constraint flags (48 bits), level, chroma_format_idc 0..3,
   bit depths minus 8 in 0..7 *)
Definition hevc_cfg_ok (cfg : list N) : bool :=
  match cfg with
  | [space; tier; idc; compat; constr; level; chroma; bdl; bdc] =>
      (space <? 4) && (tier <? 2) && (idc <? 32) && (compat <? 4294967296) && (constr <? 281474976710656)
      && (chroma <? 4) && (bdl <? 8) && (bdc <? 8)
  | _ => false
  end.

Lemma avcrec_of_ok p c l sps pps cf bl bc :
  lenN sps < 32 -> lenN pps < 256 -> forallb nalu_ok sps = true -> forallb nalu_ok pps = true ->
  cf < 4 -> bl < 8 -> bc < 8 -> avcrec_ok (avcrec_of (mkAvcC p c l sps pps cf bl bc)) = true.
Proof.
  intros H1 H2 H3 H4 H5 H6 H7. unfold avcrec_ok, avcrec_of.
  cbn [ar_sps ar_pps ar_chroma ar_bdl ar_bdc ar_nspsext ac_sps ac_pps ac_chroma ac_bdl ac_bdc].
  apply N.ltb_lt in H1, H2, H5, H6, H7. rewrite H1, H2, H3, H4, H5, H6, H7. reflexivity.
Qed.

Lemma hvcrec_of_ok cfg arrays :
  hevc_cfg_ok cfg = true -> forallb array_ok arrays = true -> lenN arrays < 256 ->
  exists space tier idc compat constr level chroma bdl bdc,
    cfg = [space; tier; idc; compat; constr; level; chroma; bdl; bdc]
    /\ let r := mkHvcRec 1 space (negb (tier =? 0)) idc compat constr level 0 0 chroma bdl bdc 0 0 0 0 3 arrays in
       hvcrec_of (mkHvcC cfg arrays) = Some r /\ hvcrec_ok r = true.
Proof.
  intros C A1 A2. unfold hevc_cfg_ok in C.
  destruct cfg as [|space [|tier [|idc [|compat [|constr [|level [|chroma [|bdl [|bdc [|? ?]]]]]]]]]]; try discriminate.
  exists space, tier, idc, compat, constr, level, chroma, bdl, bdc. split; [reflexivity|]. split; [reflexivity|].
  repeat (apply andb_true_iff in C; let K := fresh "K" in destruct C as [C K]).
  unfold hvcrec_ok.
  cbn [hr_version hr_space hr_tier hr_pidc hr_compat hr_constraint hr_level hr_minspat hr_par hr_chroma hr_bdl hr_bdc
       hr_avgfr hr_cfr hr_ntl hr_tin hr_lsm1 hr_arrays].
  apply N.ltb_lt in A2. rewrite C, K4, K3, K2, K1, K0, K, A1, A2. reflexivity.
Qed.

(* the arrays SetHEVCDescriptor builds: at most four, header bytes below 256, NAL unit lists as supplied *)
Lemma hevc_arrays_ok name vpss spss ppss seis incl :
  nalus_fit 65536 vpss = true -> nalus_fit 65536 spss = true -> nalus_fit 65536 ppss = true -> nalus_fit 65536 seis = true ->
  let A := spec_hevc_arrays name vpss spss ppss seis incl in
  forallb array_ok A = true /\ lenN A < 256 /\ forallb (fun a => fst a <? 256) A = true.
Proof.
  intros Fv Fs Fp Fe.
  assert (AO : forall ct l, nalus_fit 65536 l = true -> array_ok (ct, l) = true) by (intros ct l F; exact F).
  unfold spec_hevc_arrays, complete_bit.
  destruct (str_eqb name _); destruct incl; destruct seis as [|s0 sr]; cbn [app forallb fst];
    rewrite ?AO by assumption; repeat split; reflexivity.
Qed.
