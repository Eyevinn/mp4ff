(* C19ElngProofs.v — the extended language box written for a non-3-letter tag decodes to the same tag
   when the tag has two or more bytes and no NUL (C19_elng_short_refuted: one byte is not enough); the three
   zero-terminated strings of the stpp sample entry decode to the strings supplied. *)
From Coq Require Import String Ascii.
From V.lib Require Import Base.
From V.c19 Require Import C19Model.

Definition no_nul (lang : str) : bool := forallb (fun c => negb (c =? 0)) lang.

Lemma read_zstr_ok lang : forall rest max,
  no_nul lang = true -> (length lang < max)%nat -> read_zstr max (lang ++ 0 :: rest) = Some lang.
Proof.
  induction lang as [|c lang IH]; intros rest max Hn Hm; cbn [app].
  - destruct max; [cbn in Hm; lia|]. reflexivity.
  - cbn [no_nul forallb] in Hn. apply andb_prop in Hn. destruct Hn as [Hc Hn].
    destruct max; [cbn in Hm; lia|]. cbn [read_zstr].
    apply negb_true_iff in Hc. rewrite Hc. rewrite (IH rest max Hn); [reflexivity|]. cbn [length] in Hm. lia.
Qed.

Lemma elng_roundtrip lang :
  no_nul lang = true -> (2 <= length lang)%nat -> elng_decode (elng_payload lang) = Ok (false, lang).
Proof.
  intros Hn Hl. unfold elng_decode, elng_payload.
  assert (Hlen : length ([0; 0; 0; 0] ++ lang ++ [0]) = (length lang + 5)%nat).
  { rewrite !app_length. cbn [length]. lia. }
  rewrite Hlen.
  destruct (Nat.ltb (length lang + 5) 7) eqn:E; [apply Nat.ltb_lt in E; lia|].
  cbn [app N.eqb andb].
  replace (length lang + 5 - 4)%nat with (S (length lang)) by lia.
  change (lang ++ [0]) with (lang ++ 0 :: []).
  rewrite read_zstr_ok; [reflexivity|exact Hn|lia].
Qed.

Lemma skipn_app_exact {A} (l r : list A) : skipn (length l) (l ++ r) = r.
Proof. induction l as [|x l IH]; cbn [length skipn app]; [reflexivity|exact IH]. Qed.

Lemma stpp_roundtrip dref ns schema mime :
  dref < 65536 -> no_nul ns = true -> no_nul schema = true -> no_nul mime = true ->
  stpp_decode (stpp_payload dref ns schema mime) = Ok (dref, ns, schema, mime, 0%nat).
Proof.
  intros Hd Hn Hs Hm. unfold stpp_payload, stpp_decode. cbn [app].
  set (rest := ns ++ 0 :: schema ++ 0 :: mime ++ [0]).
  assert (Hlen : length rest = (length ns + length schema + length mime + 3)%nat).
  { unfold rest. rewrite !app_length. cbn [length]. rewrite !app_length. cbn [length]. rewrite !app_length. cbn [length]. lia. }
  cbn [length]. rewrite Hlen.
  replace (S (S (S (S (S (S (S (S (length ns + length schema + length mime + 3)))))))) - 8)%nat
    with (length ns + length schema + length mime + 3)%nat by lia.
  unfold rest at 1. rewrite read_zstr_ok; [|exact Hn|lia].
  assert (Hsk1 : skipn (S (length ns)) rest = schema ++ 0 :: mime ++ [0]).
  { unfold rest. replace (ns ++ 0 :: schema ++ 0 :: mime ++ [0]) with ((ns ++ [0]) ++ schema ++ 0 :: mime ++ [0])
      by (rewrite <- app_assoc; reflexivity).
    replace (S (length ns)) with (length (ns ++ [0])) by (rewrite app_length; cbn [length]; lia).
    apply skipn_app_exact. }
  rewrite Hsk1.
  replace (length ns + length schema + length mime + 3 - S (length ns))%nat with (length schema + length mime + 2)%nat by lia.
  destruct (Nat.ltb 0 (length schema + length mime + 2)) eqn:E1; [|apply Nat.ltb_ge in E1; lia].
  rewrite read_zstr_ok; [|exact Hs|lia].
  assert (Hsk2 : skipn (S (length schema)) (schema ++ 0 :: mime ++ [0]) = mime ++ [0]).
  { replace (schema ++ 0 :: mime ++ [0]) with ((schema ++ [0]) ++ mime ++ [0]) by (rewrite <- app_assoc; reflexivity).
    replace (S (length schema)) with (length (schema ++ [0])) by (rewrite app_length; cbn [length]; lia).
    apply skipn_app_exact. }
  rewrite Hsk2.
  replace (length schema + length mime + 2 - S (length schema))%nat with (S (length mime)) by lia.
  cbn [Nat.ltb Nat.leb].
  change (mime ++ [0]) with (mime ++ 0 :: []).
  rewrite read_zstr_ok; [|exact Hm|lia].
  replace (S (length mime) - S (length mime))%nat with 0%nat by lia. cbn [Nat.ltb Nat.leb].
  do 5 f_equal.
  pose proof (N.div_mod dref 256). lia.
Qed.
