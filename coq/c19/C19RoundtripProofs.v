(* C19RoundtripProofs.v — C19_roundtrip for EVERY state that satisfies the structural invariant (all histories,
   C19_inv) and whose values fit the fields of their boxes (args_okb: what Go's types guarantee -- uint32 ids and
   timescales, uint16 dimensions, byte profile values -- plus the "valid parameter sets" conditions of the record
   theorems and a language tag of two or more non-NUL bytes), provided the encoded sizes fit 32 bits (enc_fits, C01):
   C01's decoder applied to C01's encoding of tree_of s returns exactly tree_of s. *)
From Coq Require Import String Ascii.
From V.lib Require Import Base.
From V.c19 Require Import C19BoxCodec C19BoxModel C19BoxEq.
From V.c19 Require Import C19Model C19Spec C19InvProofs C19RecModel C19RecProofs C19TreeModel C19TreeProofs
  C19LeafProofs C19PrintParseProofs C19LeafPPProofs C19EsdsProofs.

Ltac split_b H :=
  repeat (apply andb_true_iff in H; let K := fresh "K" in destruct H as [H K]);
  repeat match goal with h : (_ <? _) = true |- _ => apply N.ltb_lt in h end;
  repeat match goal with h : (_ <=? _) = true |- _ => apply N.leb_le in h end;
  repeat match goal with h : (_ =? _) = true |- _ => apply N.eqb_eq in h end.

Ltac gets Hb :=
  match type of Hb with Some ?x = Some ?b => let E := fresh in assert (E : b = x) by congruence; subst b; clear Hb end.

Lemma nalus16_forall l : nalus16b l = true -> Forall nalu16 l.
Proof. unfold nalus16b. rewrite forallb_forall. intros H. apply Forall_forall. intros a Ha. apply N.ltb_lt. exact (H a Ha). Qed.
Lemma no_nul_forall l : no_nulb l = true -> Forall (fun c => c <> 0) l.
Proof.
  unfold no_nulb. rewrite forallb_forall. intros H. apply Forall_forall. intros a Ha.
  specialize (H a Ha). apply negb_true_iff in H. apply N.eqb_neq. exact H.
Qed.

(* Everything wf asks of a tree except the 32-bit size conditions is a matter of its shape, and the size conditions
   are what enc_fits computes.  Trees are therefore shown well formed UNDER the hypothesis that they fit: the four
   lemmas below take enc_fits apart, once, and hand the parts to the children. *)
Definition fit_wf (t : mbox) : Prop := enc_fits t = true -> wf t.

Lemma fit_wf_all cs : Forall fit_wf cs -> forallb enc_fits cs = true -> Forall wf cs.
Proof.
  induction 1 as [|c cs Hc _ IH]; intros Hf; [constructor|].
  cbn [forallb] in Hf. apply andb_true_iff in Hf. destruct Hf as [H1 H2]. constructor; [exact (Hc H1)|exact (IH H2)].
Qed.

Lemma fit_leaf l d :
  lookup (leaf_name l) leaf_table = Some d -> lenN (leaf_name l) = 4 -> leaf_large l = false -> leaf_pp d l ->
  fit_wf (leafb l).
Proof.
  intros Hd Hn Hl Hpp Hf. unfold leafb in Hf. cbn [enc_fits] in Hf. rewrite Hl in Hf.
  eapply wf_leaf; eauto. apply N.ltb_lt. exact Hf.
Qed.

Lemma fit_unk name p :
  lenN name = 4 -> lookup name leaf_table = None -> lookup name pre_table = None -> is_cont name = false ->
  fit_wf (unkb name p).
Proof. intros Hn H1 H2 H3 Hf. apply wf_unk; try assumption. apply N.ltb_lt. exact Hf. Qed.

Lemma fit_cont name cs :
  lenN name = 4 -> lookup name leaf_table = None -> lookup name pre_table = None -> is_cont name = true ->
  bytes_eqb name n_moof = false -> bytes_eqb name n_edts = false ->
  (bytes_eqb name n_moov = true -> moov_stable_from is_trak_box [] cs = true) ->
  Forall fit_wf cs -> fit_wf (contb name cs).
Proof.
  intros H1 H2 H3 H4 H5 H6 H7 Hcs Hf. unfold contb in Hf. cbn [enc_fits] in Hf.
  apply andb_true_iff in Hf. destruct Hf as [Hs Hc]. apply N.ltb_lt in Hs.
  apply wf_cont; try assumption. exact (fit_wf_all cs Hcs Hc).
Qed.

(* containers other than moov: no condition on the order of the children *)
Lemma fit_contb name cs :
  lenN name = 4 -> lookup name leaf_table = None -> lookup name pre_table = None -> is_cont name = true ->
  bytes_eqb name n_moof = false -> bytes_eqb name n_edts = false -> bytes_eqb name n_moov = false ->
  Forall fit_wf cs -> fit_wf (contb name cs).
Proof. intros H1 H2 H3 H4 H5 H6 H7. apply fit_cont; try assumption. rewrite H7. discriminate. Qed.

Lemma fit_pre l d lk cs :
  lookup (leaf_name l) leaf_table = None -> lookup (leaf_name l) pre_table = Some (d, lk) -> lenN (leaf_name l) = 4 ->
  pre_pp d l ->
  match lk with
  | PStrict off => size_leaf l = off /\ pre_count_ok l (lenN cs) = true
  | PEntry start => size_leaf l = start
  end ->
  Forall fit_wf cs -> fit_wf (preb l cs).
Proof.
  intros H1 H2 H3 Hpp Hlk Hcs Hf. unfold preb in Hf. cbn [enc_fits] in Hf.
  apply andb_true_iff in Hf. destruct Hf as [Hs Hc]. apply N.ltb_lt in Hs.
  eapply wf_pre; eauto. exact (fit_wf_all cs Hcs Hc).
Qed.

Lemma fit_visual name dri w h c :
  (name = n_avc1 \/ name = n_avc3 \/ name = n_hvc1 \/ name = n_hev1) ->
  dri < 65536 -> w < 65536 -> h < 65536 -> fit_wf c ->
  fit_wf (preb (LVisual name dri w h 4718592 4718592 1 compressor_name) [c]).
Proof.
  intros Hn Hd Hw Hh Hc.
  assert (Hpp : pre_pp dec_visual (LVisual name dri w h 4718592 4718592 1 compressor_name)).
  { apply ppp_visual; try assumption; try lia. vm_compute. discriminate. }
  destruct Hn as [-> | [-> | [-> | ->]]];
    (eapply (fit_pre _ dec_visual (PEntry 86)); [reflexivity|reflexivity|reflexivity|exact Hpp|reflexivity|constructor; [exact Hc|constructor]]).
Qed.

Lemma fit_audio name dri ch ss sr c :
  (name = n_mp4a \/ name = n_ac3 \/ name = n_ec3) ->
  dri < 65536 -> ch < 65536 -> ss < 65536 -> sr < 65536 -> fit_wf c -> fit_wf (preb (LAudio name dri ch ss sr) [c]).
Proof.
  intros Hn Hd H1 H2 H3 Hc.
  assert (Hpp : pre_pp dec_audio (LAudio name dri ch ss sr)) by (apply ppp_audio; assumption).
  destruct Hn as [-> | [-> | ->]];
    (eapply (fit_pre _ dec_audio (PEntry 36)); [reflexivity|reflexivity|reflexivity|exact Hpp|reflexivity|constructor; [exact Hc|constructor]]).
Qed.

Lemma array_ok_narr a : array_ok a = true -> fst a < 256 -> narr_ok a.
Proof.
  unfold array_ok. intros H Hf. apply andb_true_iff in H. destruct H as [H1 H2]. apply N.ltb_lt in H1.
  split; [exact Hf|]. split; [exact H1|]. apply nalus16_forall. exact H2.
Qed.

(* the box holds the canonical record: the trailing fields as avcc_fields_ok wants them *)
Lemma avcrec_canon_fields a :
  let r := avcrec_canon (avcrec_of a) in
  ar_profile r = ac_profile a /\ ar_compat r = ac_compat a /\ ar_level r = ac_level a
  /\ ar_sps r = ac_sps a /\ ar_pps r = ac_pps a
  /\ (ac_chroma a < 4 -> ac_bdl a < 8 -> ac_bdc a < 8 ->
      avcc_fields_ok (ar_profile r) (ar_chroma r) (ar_bdl r) (ar_bdc r) (ar_nspsext r) (ar_notrail r)).
Proof.
  unfold avcrec_canon, avcrec_of, avcc_fields_ok. cbn [ar_profile ar_notrail].
  change (C19BoxModel.avc_plain (ac_profile a)) with (C19RecModel.avc_plain (ac_profile a)).
  destruct (C19RecModel.avc_plain (ac_profile a)) eqn:Epl;
    cbn [ar_profile ar_compat ar_level ar_sps ar_pps ar_chroma ar_bdl ar_bdc ar_nspsext ar_notrail];
    change (C19BoxModel.avc_plain (ac_profile a)) with (C19RecModel.avc_plain (ac_profile a)); rewrite Epl; tauto.
Qed.

Lemma fit_entry e b : entry_box e = Some b -> entry_okb e = true -> fit_wf b.
Proof.
  unfold entry_box, entry_okb. intros Hb Hok.
  apply andb_true_iff in Hok. destruct Hok as [Hok Hcfg]. split_b Hok.
  destruct (se_cfg e) as [a|h|asc|d|d|config|ns schema mime].
  - gets Hb. split_b Hcfg.
    destruct (avcrec_canon_fields a) as (E1 & E2 & E3 & E4 & E5 & Hfld). cbv zeta in *.
    apply fit_visual; try assumption.
    + match goal with H : (_ || _) = true |- _ => apply orb_true_iff in H; destruct H as [E|E]; apply bytes_eqb_eq in E; auto end.
    + eapply fit_leaf; [reflexivity..|].
      apply lpp_avcC; try (apply Hfld; assumption); rewrite ?E1, ?E2, ?E3, ?E4, ?E5; try assumption;
        apply nalus16_forall; assumption.
  - apply andb_true_iff in Hcfg. destruct Hcfg as [Hnm Hr].
    destruct (hvcrec_of h) as [r|]; [|discriminate]. gets Hb.
    apply andb_true_iff in Hr. destruct Hr as [Hr Hct]. apply andb_true_iff in Hr. destruct Hr as [Hr Hlv].
    apply N.ltb_lt in Hlv. unfold hvcrec_ok in Hr. split_b Hr.
    apply fit_visual; try assumption.
    + apply orb_true_iff in Hnm. destruct Hnm as [E|E]; apply bytes_eqb_eq in E; auto.
    + eapply fit_leaf; [reflexivity..|]. apply lpp_hvcC; try assumption.
      apply Forall_forall. intros x Hx.
      match goal with HK : forallb array_ok _ = true |- _ => rewrite forallb_forall in HK; rewrite forallb_forall in Hct;
        apply array_ok_narr; [exact (HK x Hx)|]; apply N.ltb_lt; exact (Hct x Hx) end.
  - gets Hb. apply andb_true_iff in Hcfg. destruct Hcfg as [Hnm Hlen]. apply bytes_eqb_eq in Hnm. apply N.leb_le in Hlen.
    apply fit_audio; try assumption; auto.
    eapply fit_leaf; [reflexivity..|]. apply lpp_esds; assumption.
  - gets Hb. apply bytes_eqb_eq in Hcfg. apply fit_audio; try assumption; auto. apply fit_unk; reflexivity.
  - destruct (dec3_payload d) as [p|]; [|discriminate]. gets Hb. apply bytes_eqb_eq in Hcfg.
    apply fit_audio; try assumption; auto. apply fit_unk; reflexivity.
  - gets Hb. apply fit_unk; reflexivity.
  - gets Hb. apply fit_unk; reflexivity.
Qed.

Lemma fit_entries es : forall bs, entries_boxes es = Some bs -> forallb entry_okb es = true ->
  Forall fit_wf bs /\ length bs = length es.
Proof.
  induction es as [|e es IH]; intros bs Hb Hok; cbn [entries_boxes] in Hb.
  - injection Hb as <-. split; [constructor|reflexivity].
  - destruct (entry_box e) as [b|] eqn:Eb; [|discriminate]. destruct (entries_boxes es) as [bs'|]; [|discriminate].
    injection Hb as <-. cbn [forallb] in Hok. apply andb_true_iff in Hok. destruct Hok as [Ho1 Ho2].
    destruct (IH bs' eq_refl Ho2) as [IH1 IH2]. split; [constructor; [eapply fit_entry; eauto|exact IH1]|cbn [length]; lia].
Qed.

Lemma fit_mhdr h : fit_wf (mhdr_box h).
Proof.
  destruct h; unfold mhdr_box; (eapply fit_leaf; [reflexivity..|]);
    [apply lpp_vmhd|apply lpp_smhd|apply lpp_fullonly|apply lpp_fullonly]; lia.
Qed.

Lemma fit_dinf : fit_wf (contb n_dinf [preb (LDref 0 0 1) [leafb (LUrl 0 1 [] true false)]]).
Proof.
  apply fit_contb; [reflexivity..|]. constructor; [|constructor].
  eapply (fit_pre _ dec_dref (PStrict 16)); [reflexivity|reflexivity|reflexivity|apply ppp_dref; lia|split; reflexivity|].
  constructor; [|constructor]. eapply fit_leaf; [reflexivity..|]. apply lpp_url; lia.
Qed.

Lemma fit_stbl es :
  lenN es < 4294967296 -> Forall fit_wf es ->
  fit_wf (contb n_stbl [ preb (LStsd 0 0 (lenN es)) es; leafb (LStts 0 0 []); leafb (LStsc 0 0 [] 0 []);
                         leafb (LStsz 0 0 0 0 []); leafb (LTab n_stco 4 0 0 []) ]).
Proof.
  intros Hn Hes. apply fit_contb; [reflexivity..|]. repeat constructor.
  - eapply (fit_pre _ dec_stsd (PStrict 16)); [reflexivity|reflexivity|reflexivity|apply ppp_stsd; lia| |exact Hes].
    split; [reflexivity|]. cbn [pre_count_ok]. apply N.eqb_refl.
  - eapply fit_leaf; [reflexivity..|]. apply lpp_stts; lia.
  - eapply fit_leaf; [reflexivity..|]. apply lpp_stsc; lia.
  - eapply fit_leaf; [reflexivity..|]. apply lpp_stsz; lia.
  - eapply fit_leaf; [reflexivity..|]. apply lpp_tab; lia.
Qed.

Lemma fit_trak t b : trak_box t = Some b -> trak_okb t = true -> fit_wf b.
Proof.
  unfold trak_box, trak_okb. intros Hb Hok.
  destruct (entries_boxes (sd_entries t)) as [es|] eqn:Ees; [|discriminate]. gets Hb.
  apply andb_true_iff in Hok. destruct Hok as [Hok Hent]. apply andb_true_iff in Hok. destruct Hok as [Hok Hcnt].
  apply andb_true_iff in Hok. destruct Hok as [Hok Hel]. split_b Hok.
  destruct (fit_entries _ es Ees Hent) as [Hes Hlen].
  assert (Hles : lenN es < 4294967296) by (unfold lenN in *; rewrite Hlen; exact Hcnt).
  apply fit_contb; [reflexivity..|].
  constructor; [|constructor; [|constructor]].
  - eapply fit_leaf; [reflexivity..|]. apply lpp_tkhd; try assumption; lia.
  - apply fit_contb; [reflexivity..|].
    apply Forall_app. split; [|apply Forall_app; split].
    + constructor; [|constructor; [|constructor]].
      * eapply fit_leaf; [reflexivity..|]. apply lpp_mdhd; try assumption; lia.
      * eapply fit_leaf; [reflexivity..|]. apply lpp_hdlr; try assumption; lia.
    + destruct (el_lang t) as [l|]; [|constructor]. constructor; [|constructor].
      apply andb_true_iff in Hel. destruct Hel as [Hl1 Hl2]. apply N.leb_le in Hl1.
      eapply fit_leaf; [reflexivity..|]. apply lpp_elng; [exact Hl1|apply no_nul_forall; exact Hl2].
    + constructor; [|constructor]. apply fit_contb; [reflexivity..|].
      constructor; [apply fit_mhdr|]. constructor; [apply fit_dinf|]. constructor; [|constructor].
      apply fit_stbl; assumption.
Qed.

Lemma fuel_sum cs : Forall (fun c => N.of_nat (fuel_of c) + 6 <= size_box c) cs ->
  N.of_nat (length cs + maxl (map fuel_of cs)) <= sumN (map size_box cs).
Proof.
  induction 1 as [|c cs Hc _ IH]; [cbn; lia|]. cbn [length map maxl sumN]. lia.
Qed.

Lemma fuel_size_n n : forall t, (fuel_of t <= n)%nat -> wf t -> N.of_nat (fuel_of t) + 6 <= size_box t.
Proof.
  induction n as [|n IHn]; intros t Hn Hw.
  { destruct t; cbn [fuel_of] in Hn; lia. }
  assert (Hkids : forall cs, (S (S (length cs + maxl (map fuel_of cs))) <= S n)%nat -> Forall wf cs ->
                             Forall (fun c => N.of_nat (fuel_of c) + 6 <= size_box c) cs).
  { intros cs Hle Hf. apply Forall_forall. intros c Hin. apply IHn.
    - pose proof (maxl_in fuel_of c cs Hin). lia.
    - exact (proj1 (Forall_forall _ _) Hf c Hin). }
  destruct Hw as [l d _ _ _ _ (b & _ & Hlen & _)
                 |name cs _ _ _ _ _ _ _ _ Hcs
                 |name p _ _ _ _ _
                 |l d lk cs _ _ _ (b & _ & Hlen & _) _ _ Hcs].
  - unfold leafb. cbn [fuel_of size_box]. lia.
  - unfold contb in *. cbn [fuel_of size_box] in *. pose proof (fuel_sum cs (Hkids cs Hn Hcs)). lia.
  - unfold unkb, hdr8. cbn [fuel_of size_box h_size]. lia.
  - unfold preb in *. cbn [fuel_of size_box] in *. pose proof (fuel_sum cs (Hkids cs Hn Hcs)). lia.
Qed.

Lemma fuel_size t : wf t -> N.of_nat (fuel_of t) + 6 <= size_box t.
Proof. intros H. exact (fuel_size_n (fuel_of t) t (Nat.le_refl _) H). Qed.

(* decode of one well-formed box at the head of a slice, with the fuel decode gives itself *)
Lemma decode_wf t : wf t -> exists enc, raw_box false t = Ok enc /\ 8 <= lenN enc /\ forall r2, decode (enc ++ r2) = Ok (t, r2).
Proof.
  intros Hw. destruct (pp_box t Hw) as (enc & He & Hl & H8 & Hd). exists enc. split; [exact He|]. split; [lia|].
  intros r2. unfold decode. apply Hd. pose proof (fuel_size t Hw). rewrite app_length. unfold lenN in Hl. lia.
Qed.

Lemma decode_file_wf ts : Forall wf ts -> exists bs, encode_seq false ts = Ok bs /\ decode_file bs = Ok ts.
Proof.
  intros Hw.
  (* with any fuel above the number of boxes; and there are at least as many bytes, every box having 8 or more *)
  assert (G : exists bs, encode_seq false ts = Ok bs /\ (length ts <= length bs)%nat
                         /\ forall f, (length ts < f)%nat -> decode_seq f bs = Ok ts).
  { induction Hw as [|t ts Ht _ IH].
    - exists []. split; [reflexivity|]. split; [reflexivity|]. intros f Hf. destruct f; [lia|]. reflexivity.
    - destruct IH as (bs & Hb & Hl & Hd). destruct (decode_wf t Ht) as (e & He & H8 & Hde). unfold lenN in H8.
      exists (e ++ bs). cbn [encode_seq]. rewrite He, Hb. split; [reflexivity|].
      split; [rewrite app_length; cbn [length]; lia|].
      intros f Hf. destruct f as [|f]; [lia|]. cbn [decode_seq].
      destruct (e ++ bs) as [|x y] eqn:E.
      { apply (f_equal (@length N)) in E. rewrite app_length in E. cbn in E. lia. }
      rewrite <- E, Hde, Hd by (cbn [length] in Hf; lia). reflexivity. }
  destruct G as (bs & Hb & Hl & Hd). exists bs. split; [exact Hb|]. unfold decode_file. apply Hd. lia.
Qed.

Lemma lti_snoc {A} (f : A -> bool) acc x : forall i a, f x = true ->
  C19BoxModel.last_trak_idx f (acc ++ [x]) i a = (i + length acc)%nat.
Proof.
  induction acc as [|y acc IH]; intros i a Hx; cbn [app C19BoxModel.last_trak_idx length].
  - rewrite Hx. lia.
  - rewrite IH by exact Hx. lia.
Qed.

Lemma stable_inv {A} (f : A -> bool) ts : forall acc,
  (C19BoxModel.last_trak_idx f acc 0 0 = 0 \/ C19BoxModel.last_trak_idx f acc 0 0 = length acc - 1)%nat ->
  Forall (fun c => f c = true) ts -> moov_stable_from f acc ts = true.
Proof.
  induction ts as [|c ts IH]; intros acc Hk Hall; [reflexivity|]. inversion Hall; subst.
  cbn [moov_stable_from]. apply andb_true_iff. split.
  - apply negb_true_iff. unfold moov_cond. destruct Hk as [-> | ->].
    + cbn [Nat.eqb negb andb]. apply andb_false_r.
    + rewrite Nat.eqb_refl. cbn [negb]. rewrite andb_false_r. apply andb_false_r.
  - apply IH; [|assumption]. right. rewrite lti_snoc by assumption. rewrite app_length. cbn [length]. lia.
Qed.

Lemma trak_box_is_trak t b : trak_box t = Some b -> is_trak_box b = true.
Proof.
  unfold trak_box. destruct (entries_boxes (sd_entries t)); [|discriminate]. intros Hb. gets Hb. reflexivity.
Qed.

Lemma fit_trak_list s : forall l bs, children_boxes s (map MCtrak l) = Some bs ->
  forallb trak_okb (traks s) = true ->
  Forall fit_wf bs /\ Forall (fun b => is_trak_box b = true) bs.
Proof.
  induction l as [|i l IH]; intros bs Hb Hok; cbn [map children_boxes child_box] in Hb.
  - gets Hb. split; constructor.
  - destruct (nth_error (traks s) i) as [t|] eqn:Et; [|discriminate].
    destruct (trak_box t) as [b|] eqn:Eb; [|discriminate].
    destruct (children_boxes s (map MCtrak l)) as [bs'|]; [|discriminate]. gets Hb.
    destruct (IH bs' eq_refl Hok) as [I1 I2].
    assert (Ht : trak_okb t = true) by (rewrite forallb_forall in Hok; apply Hok; eapply nth_error_In; eauto).
    split; constructor; try assumption; [eapply fit_trak; eauto|eapply trak_box_is_trak; eauto].
Qed.

Lemma fit_trexs ids : forallb (fun id => id <? 4294967296) ids = true -> Forall fit_wf (map trex_box ids).
Proof.
  intros Hok. apply Forall_forall. intros b Hb. apply in_map_iff in Hb. destruct Hb as (id & <- & Hid).
  rewrite forallb_forall in Hok. specialize (Hok id Hid). apply N.ltb_lt in Hok.
  eapply fit_leaf; [reflexivity..|]. apply lpp_trex; try assumption; lia.
Qed.

Theorem roundtrip_state s ts :
  inv_struct s -> args_okb s = true -> tree_of s = Some ts -> forallb enc_fits ts = true ->
  exists bs, encode_seq false ts = Ok bs /\ decode_file bs = Ok ts.
Proof.
  intros (Hc & _ & _) Hok Ht Hf. unfold tree_of in Ht.
  destruct (children_boxes s (children s)) as [cs|] eqn:Ecs; [|discriminate]. gets Ht.
  unfold args_okb in Hok. apply andb_true_iff in Hok. destruct Hok as [Hok Htr]. apply andb_true_iff in Hok.
  destruct Hok as [Hnext Htx]. apply N.ltb_lt in Hnext.
  apply decode_file_wf. apply fit_wf_all; [|exact Hf]. constructor; [|constructor; [|constructor]].
  - eapply fit_leaf; [reflexivity..|]. apply lpp_ftyp. vm_compute. discriminate.
  - rewrite Hc in Ecs. unfold base_children in Ecs. cbn [app children_boxes child_box] in Ecs.
    destruct (children_boxes s (map MCtrak (seq 0 (length (traks s))))) as [tb|] eqn:Etb; [|discriminate]. gets Ecs.
    destruct (fit_trak_list s _ tb Etb Htr) as [Wt It].
    apply fit_cont; try reflexivity.
    + (* mvhd and mvex are no traks, and from then on every child is one: AddChild never reorders *)
      intros _. cbn [moov_stable_from]. unfold moov_cond at 1. cbn [is_trak_box box_name mvhd_box leafb leaf_name].
      change (bytes_eqb n_mvhd n_trak) with false. cbn [andb negb app].
      unfold moov_cond at 1. unfold contb at 1. cbn [is_trak_box box_name h_name hdr8].
      change (bytes_eqb n_mvex n_trak) with false. cbn [andb negb app].
      apply stable_inv; [|exact It]. left. reflexivity.
    + constructor; [|constructor].
      * eapply fit_leaf; [reflexivity..|]. apply lpp_mvhd; try assumption; lia.
      * apply fit_contb; [reflexivity..|]. apply fit_trexs; assumption.
      * exact Wt.
Qed.

(* every history *)
Theorem roundtrip_all (avc_parse : str -> option avc_info) (hevc_parse : str -> option (N * N * list N)) ops :
  N.of_nat (length ops) < 4294967295 ->
  let s := snd (run avc_parse hevc_parse ops) in
  args_okb s = true -> forall ts, tree_of s = Some ts -> forallb enc_fits ts = true ->
  exists bs, encode_seq false ts = Ok bs /\ decode_file bs = Ok ts
    /\ (traks s <> [] -> is_fragmented_init ts = true)
    /\ (forall t, In t (traks s) -> has_trex ts (tk_id t) = true).
Proof.
  intros Hb s Hok ts Ht Hf. destruct (inv_all avc_parse hevc_parse ops Hb) as [Hi _]. fold s in Hi.
  destruct (roundtrip_state s ts Hi Hok Ht Hf) as (bs & He & Hd).
  destruct (built_all avc_parse hevc_parse ops Hb ts Ht) as [Hfr Htx].
  exists bs. repeat split; assumption.
Qed.
