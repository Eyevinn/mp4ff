(* C19TrackProofs.v — in-scope histories: no panic, next-track id = n+1, every track's handler type,
   media header, language, timescale, volume equal to the specification. *)
From Coq Require Import String Ascii.
From V.lib Require Import Base.
From V.c19 Require Import C19Model C19Spec C19InvProofs.

Lemma five_mod c : Z.to_N (Z.land (Z.of_N c - 96) 31) = c mod 32.
Proof.
  change 31%Z with (Z.ones 5). rewrite Z.land_ones by lia.
  change (2 ^ 5)%Z with 32%Z.
  replace (Z.of_N c - 96)%Z with (Z.of_N c + (-3) * 32)%Z by lia.
  rewrite Z.mod_add by lia. lia.
Qed.

Lemma set_language_3 a b c : set_language [a; b; c] = Some (pack3 a b c).
Proof.
  unfold set_language. cbn [set_language_from Nat.leb Nat.sub].
  rewrite !five_mod. unfold pack3, u16.
  change (5 * N.of_nat 2) with 10. change (5 * N.of_nat 1) with 5. change (5 * N.of_nat 0) with 0.
  rewrite !shiftl_mul. change (2 ^ 10) with 1024. change (2 ^ 5) with 32. change (2 ^ 0) with 1.
  f_equal.
  assert (Ha : a mod 32 < 32) by (apply N.mod_lt; lia).
  assert (Hb : b mod 32 < 32) by (apply N.mod_lt; lia).
  assert (Hc : c mod 32 < 32) by (apply N.mod_lt; lia).
  set (A := a mod 32) in *. set (BB := b mod 32) in *. set (C := c mod 32) in *.
  rewrite (N.mod_small (A * 1024)) by lia.
  rewrite (N.mod_small (0 + A * 1024)) by lia.
  rewrite (N.mod_small (BB * 32)) by lia.
  rewrite (N.mod_small (0 + A * 1024 + BB * 32)) by lia.
  rewrite (N.mod_small (C * 1)) by lia.
  rewrite N.mod_small by lia. lia.
Qed.

Lemma set_language_und : set_language (BS "und") = Some und_packed.
Proof. vm_compute. reflexivity. Qed.

(* the packed language of three lower-case letters reads back as those letters *)
Lemma get_language_pack3 a b c :
  lower a = true -> lower b = true -> lower c = true -> get_language (pack3 a b c) = [a; b; c].
Proof.
  unfold lower, get_language, pack3. intros Ha Hb Hc.
  change 31 with (N.ones 5). rewrite !N.land_ones, !shiftr_div.
  change (2 ^ 5) with 32. change (2 ^ 10) with 1024.
  assert (Ea : a mod 32 = a - 96) by lia.
  assert (Eb : b mod 32 = b - 96) by lia.
  assert (Ec : c mod 32 = c - 96) by lia.
  rewrite Ea, Eb, Ec.
  f_equal; [|f_equal; [|f_equal]]; lia.
Qed.

Lemma lang_spec lang :
  (if Nat.eqb (length lang) 3 then (set_language lang, @None str) else (set_language (BS "und"), Some lang))
  = (Some (spec_mdhd_lang lang), spec_elng lang).
Proof.
  destruct lang as [|a [|b [|c [|d r]]]]; cbn [length Nat.eqb spec_mdhd_lang spec_elng];
    try (rewrite set_language_und; reflexivity).
  rewrite set_language_3. reflexivity.
Qed.

Lemma spec_lookup_cases m v :
  spec_lookup m spec_table = Some v ->
  In (m, v) spec_table.
Proof.
  unfold spec_table. cbn [spec_lookup].
  repeat match goal with
         | |- context [str_eqb m ?k] =>
             let E := fresh "E" in
             destruct (str_eqb m k) eqn:E;
             [apply str_eqb_eq in E; intros [= <-]; subst m; cbn [In]; tauto|]
         end.
  discriminate.
Qed.

Lemma hdlr_matches_spec m h mh :
  spec_lookup m spec_table = Some (h, mh) ->
  (exists name, create_hdlr m = Some (h, name)) /\ media_header m = mh.
Proof.
  intros H. apply spec_lookup_cases in H. unfold spec_table in H. cbn [In] in H.
  repeat (destruct H as [H|H]; [inversion H; subst; split; [eexists; vm_compute; reflexivity | vm_compute; reflexivity]|]).
  contradiction.
Qed.

Lemma create_empty_trak_spec id ts m lang h mh :
  spec_lookup m spec_table = Some (h, mh) ->
  exists t, create_empty_trak id ts m lang = Some t
            /\ core t = (id, (if str_eqb m (BS "audio") then 256 else 0), ts, spec_mdhd_lang lang, h, spec_elng lang, mh)
            /\ sd_entries t = [] /\ tk_width t = 0 /\ tk_height t = 0.
Proof.
  intros H. destruct (hdlr_matches_spec m h mh H) as [[name Hh] Hm].
  unfold create_empty_trak. rewrite Hh, lang_spec. cbn [fst snd].
  eexists. split; [reflexivity|]. unfold core. cbn [tk_id tk_volume md_timescale md_lang hd_type el_lang mi_hdr sd_entries tk_width tk_height].
  rewrite Hm. repeat split; reflexivity.
Qed.

Lemma small_cases_8 x : x <? 8 = true -> x = 0 \/ x = 1 \/ x = 2 \/ x = 3 \/ x = 4 \/ x = 5 \/ x = 6 \/ x = 7.
Proof. intros H. lia. Qed.
Lemma small_cases_3 x : x <? 3 = true -> x = 0 \/ x = 1 \/ x = 2.
Proof. intros H. lia. Qed.

Lemma acmod_some acmod : acmod <? 8 = true -> exists l, acmod_channels acmod = Some l.
Proof.
  intros H. apply small_cases_8 in H.
  repeat (destruct H as [H|H]; [subst; eexists; vm_compute; reflexivity|]). subst. eexists. vm_compute. reflexivity.
Qed.
Lemma rate_some f : f <? 3 = true -> exists r, ac3_rate f = Some r.
Proof.
  intros H. apply small_cases_3 in H.
  repeat (destruct H as [H|H]; [subst; eexists; vm_compute; reflexivity|]). subst. eexists. vm_compute. reflexivity.
Qed.

Ltac np_break :=
  repeat match goal with
         | |- context [match ?x with _ => _ end] => destruct x eqn:?
         end; cbn [fst]; try discriminate.

Section P.
  Variable avc_parse : str -> option avc_info.
  Variable hevc_parse : str -> option (N * N * list N).

  Lemma set_desc_no_panic t d : desc_valid d = true -> fst (set_desc avc_parse hevc_parse t d) <> OPanic.
  Proof.
    destruct d as [name spss ppss incl|name vpss spss ppss seis incl|o f|d|d|c|a b c]; cbn [desc_valid set_desc]; intros Hv.
    - destruct spss as [|sps0 spss]; [cbn in Hv; discriminate|].
      unfold set_avc, create_avcc. np_break.
    - destruct spss as [|sps0 spss]; [cbn in Hv; discriminate|].
      unfold set_hevc, create_hvcc. np_break.
    - unfold set_aac. destruct (asc_encode _ _ _ _); cbn [fst]; discriminate.
    - destruct d as [fscod bsid bsmod acmod lfeon brc]. apply andb_prop in Hv. destruct Hv as [Hf Ha].
      unfold set_ac3. destruct (acmod_some acmod Ha) as [l ->]. destruct (rate_some fscod Hf) as [r ->]. cbn [fst]. discriminate.
    - destruct d as [dr subs]. destruct subs as [|[fscod bsid asvc bsmod acmod lfeon nds cl] subs]; [discriminate|].
      apply andb_prop in Hv. destruct Hv as [Hf Ha].
      unfold set_ec3. destruct (acmod_some acmod Ha) as [l ->]. destruct (rate_some fscod Hf) as [r ->]. cbn [fst]. discriminate.
    - unfold set_wvtt. cbn [fst]. discriminate.
    - unfold set_stpp. cbn [fst]. discriminate.
  Qed.

  Definition cores_of (s : st) := map Some (map core (traks s)).

  Lemma spec_cores_app i l1 l2 : spec_cores i (l1 ++ l2) = spec_cores i l1 ++ spec_cores (length l1 + i) l2.
  Proof.
    revert i. induction l1 as [|[[ts m] lang] l1 IH]; intros i; cbn [app spec_cores length]; [reflexivity|].
    rewrite IH. replace (length l1 + S i)%nat with (S (length l1 + i)) by lia. reflexivity.
  Qed.

  Definition next_spec (s : st) : Prop :=
    next_id s = match length (traks s) with O => 2 | n => N.of_nat n + 1 end.

  (* one in-scope call: no panic; an AddEmptyTrack appends the core of the specification, a descriptor call
     leaves the cores alone; `rest` only carries the track count on *)
  Lemma step_valid s o rest :
    bound s 1 -> inv_struct s -> next_spec s -> ops_valid (length (traks s)) (o :: rest) = true ->
    let '(oc, s') := step avc_parse hevc_parse s o in
    oc <> OPanic
    /\ cores_of s' = cores_of s ++ spec_cores (length (traks s)) (adds_of [o])
    /\ length (traks s') = (length (adds_of [o]) + length (traks s))%nat
    /\ next_spec s' /\ ops_valid (length (traks s')) rest = true.
  Proof.
    intros Hb (Hc & _ & _) Hx Hv. destruct o as [ts m lang|k d]; cbn [ops_valid] in Hv.
    - apply andb_prop in Hv. destruct Hv as [Hm Hv].
      unfold media_supported in Hm. destruct (spec_lookup m spec_table) as [[h mh]|] eqn:Hl; [|discriminate].
      cbn [step]. unfold add_empty_track. destruct (track_id_small s Hb) as [-> ->].
      set (n := length (traks s)) in *.
      destruct (create_empty_trak_spec (N.of_nat (S n)) ts m lang h mh Hl) as [t [-> [Hcore _]]].
      set (s1 := mkSt (children s) (traks s) (trexs s) (N.of_nat (S n) + 1)).
      destruct (moov_add_trak_rest s1 t) as (Ht & _ & Hn). unfold cores_of, next_spec. cbn [traks next_id].
      rewrite Ht, Hn. cbn [traks next_id s1 adds_of spec_cores length]. fold n.
      rewrite app_length, !map_app. cbn [length map]. rewrite Nat.add_1_r. unfold spec_core. rewrite Hl, Hcore.
      split; [discriminate|]. split; [reflexivity|]. split; [reflexivity|]. split; [reflexivity|exact Hv].
    - apply andb_prop in Hv. destruct Hv as [Hv Hv2]. apply andb_prop in Hv. destruct Hv as [Hk Hd].
      apply Nat.ltb_lt in Hk.
      pose proof (step_setdesc_cores avc_parse hevc_parse s k d) as Hcores.
      pose proof (step_setdesc_rest avc_parse hevc_parse s k d) as Hrest. cbv zeta in Hrest.
      assert (Hnp : fst (step avc_parse hevc_parse s (SetDesc k d)) <> OPanic).
      { cbn [step]. destruct (nth_error (traks s) k) as [t|] eqn:Hnth.
        - pose proof (set_desc_no_panic t d Hd) as Hsd.
          destruct (set_desc avc_parse hevc_parse t d) as [oc t']. exact Hsd.
        - apply nth_error_None in Hnth. lia. }
      destruct (step avc_parse hevc_parse s (SetDesc k d)) as [oc s']. cbn [fst snd] in *.
      destruct Hrest as (_ & _ & Hn' & Hl').
      unfold cores_of, next_spec. rewrite Hcores, Hl', Hn'. cbn [adds_of spec_cores length]. rewrite app_nil_r.
      repeat split; assumption.
  Qed.

  Lemma run_from_cons s o ops oc s' :
    step avc_parse hevc_parse s o = (oc, s') -> oc <> OPanic ->
    run_from avc_parse hevc_parse s (o :: ops)
    = (oc :: fst (run_from avc_parse hevc_parse s' ops), snd (run_from avc_parse hevc_parse s' ops)).
  Proof.
    intros E Hnp. cbn [run_from]. rewrite E. destruct (run_from avc_parse hevc_parse s' ops).
    destruct oc; [reflexivity|reflexivity|contradiction].
  Qed.

  Lemma run_from_valid ops : forall s,
    bound s (length ops) -> inv_struct s -> next_above s -> next_spec s ->
    ops_valid (length (traks s)) ops = true ->
    let '(ocs, s') := run_from avc_parse hevc_parse s ops in
    ~ In OPanic ocs
    /\ length ocs = length ops
    /\ cores_of s' = cores_of s ++ spec_cores (length (traks s)) (adds_of ops)
    /\ next_spec s'.
  Proof.
    induction ops as [|o ops IH]; intros s Hb Hs Hn Hx Hv.
    - cbn [run_from adds_of spec_cores In length]. rewrite app_nil_r. tauto.
    - assert (Hb1 : bound s 1) by (unfold bound in *; cbn [length] in Hb; lia).
      pose proof (step_inv avc_parse hevc_parse s o Hb1 Hs Hn) as Hst.
      pose proof (step_valid s o ops Hb1 Hs Hx Hv) as Hsv.
      destruct (step avc_parse hevc_parse s o) as [oc s'] eqn:E.
      destruct Hst as (Hs' & Hn' & Hl'). destruct Hsv as (Hnp & Hco & Hlen & Hx' & Hv').
      rewrite (run_from_cons s o ops oc s' E Hnp).
      specialize (IH s'). destruct (run_from avc_parse hevc_parse s' ops) as [ocs s'']. cbn [fst snd].
      destruct IH as (Hp & Hlo & Hco' & Hxx); try assumption.
      { unfold bound in *. cbn [length] in Hb. lia. }
      split; [cbn [In]; intros [Hbad|Hbad]; [exact (Hnp Hbad)|contradiction]|].
      split; [cbn [length]; lia|]. split; [|exact Hxx].
      rewrite Hco', Hco, Hlen, <- app_assoc, <- spec_cores_app. f_equal. f_equal.
      destruct o; reflexivity.
  Qed.

End P.
