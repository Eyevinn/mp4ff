(* C19InvProofs.v — the structural invariant of init segments over every op sequence; the induction over histories
   (run_from_ind) and the unfolding lemmas of the operations that the other files build on. *)
From Coq Require Import String Ascii FinFun.
From V.lib Require Import Base.
From V.c19 Require Import C19Model C19Spec.

Lemma str_eqb_eq a b : str_eqb a b = true <-> a = b.
Proof.
  revert b. induction a as [|x a IH]; intros [|y b]; cbn [str_eqb]; split; intros H; try discriminate; try reflexivity.
  - apply andb_prop in H. destruct H as [H1 H2]. apply N.eqb_eq in H1. apply IH in H2. subst. reflexivity.
  - inversion H; subst. rewrite N.eqb_refl. cbn [andb]. apply IH. reflexivity.
Qed.

Lemma str_eqb_refl a : str_eqb a a = true.
Proof. apply str_eqb_eq. reflexivity. Qed.

Lemma last_trak_from_traks l : forall i acc,
  last_trak_from i (map MCtrak l) acc = match l with [] => acc | _ => (i + length l - 1)%nat end.
Proof.
  induction l as [|x l IH]; intros i acc; cbn [map last_trak_from is_trak length]; [reflexivity|].
  rewrite IH. destruct l; cbn [length]; lia.
Qed.

Lemma last_trak_idx_inv n :
  last_trak_idx (base_children ++ map MCtrak (seq 0 n)) = match n with O => O | _ => S n end.
Proof.
  unfold last_trak_idx, base_children. cbn [app last_trak_from is_trak].
  rewrite last_trak_from_traks. destruct n; cbn [seq]; [reflexivity|].
  cbn [length]. rewrite seq_length. lia.
Qed.

Lemma ids_upto_S n : ids_upto (S n) = ids_upto n ++ [N.of_nat (S n)].
Proof. unfold ids_upto. rewrite seq_S, map_app. reflexivity. Qed.

Lemma ids_upto_length n : length (ids_upto n) = n.
Proof. unfold ids_upto. rewrite map_length, seq_length. reflexivity. Qed.

Lemma in_ids_upto n x : In x (ids_upto n) -> 1 <= x <= N.of_nat n.
Proof.
  unfold ids_upto. rewrite in_map_iff. intros [i [<- Hi]]. apply in_seq in Hi. lia.
Qed.

Lemma moov_add_trak_rest s t :
  traks (moov_add_trak s t) = traks s ++ [t] /\ trexs (moov_add_trak s t) = trexs s
  /\ next_id (moov_add_trak s t) = next_id s.
Proof. unfold moov_add_trak. destruct (_ && _); repeat split; reflexivity. Qed.

(* under the invariant the last trak is the last child (or there is none): the new trak is appended *)
Lemma moov_add_trak_inv s t :
  children s = base_children ++ map MCtrak (seq 0 (length (traks s))) ->
  children (moov_add_trak s t) = base_children ++ map MCtrak (seq 0 (S (length (traks s)))).
Proof.
  intros Hc. unfold moov_add_trak. set (n := length (traks s)) in *.
  assert (Hlen : length (children s) = S (S n)).
  { rewrite Hc. unfold base_children. cbn [app length]. rewrite map_length, seq_length. reflexivity. }
  rewrite Hlen, (eq_trans (f_equal last_trak_idx Hc) (last_trak_idx_inv n)).
  replace (negb (Nat.eqb (match n with O => O | _ => S n end) 0)
           && negb (Nat.eqb (match n with O => O | _ => S n end) (S (S n) - 1))) with false.
  - cbn [children]. rewrite Hc, seq_S, map_app, app_assoc. reflexivity.
  - destruct n; [reflexivity|]. replace (S (S (S n)) - 1)%nat with (S (S n)) by lia. rewrite Nat.eqb_refl. reflexivity.
Qed.

Lemma create_empty_trak_some id ts m lang t :
  create_empty_trak id ts m lang = Some t ->
  exists ht hn l,
    create_hdlr m = Some (ht, hn)
    /\ (if Nat.eqb (length lang) 3 then set_language lang else set_language (BS "und")) = Some l
    /\ t = mkTrak id (if str_eqb m (BS "audio") then 256 else 0) 0 0 ts l ht hn
                  (if Nat.eqb (length lang) 3 then None else Some lang) (media_header m) [].
Proof.
  unfold create_empty_trak. destruct (create_hdlr m) as [[ht hn]|]; [|discriminate].
  destruct (Nat.eqb (length lang) 3); cbn [fst snd];
    (destruct (set_language _) as [l|]; [|discriminate]); intros [= <-]; exists ht, hn, l; repeat split; reflexivity.
Qed.

Lemma core_stsd_add t e : core (stsd_add t e) = core t.
Proof. reflexivity. Qed.
Lemma core_set_dims t w h : core (set_tkhd_dims t w h) = core t.
Proof. reflexivity. Qed.

Section P.
  Variable avc_parse : str -> option avc_info.
  Variable hevc_parse : str -> option (N * N * list N).

  (* what any Set...Descriptor call can do to a trak, by inspection of every branch: nothing, or new tkhd dimensions
     (uint32), and on top of that one more sample entry -- exactly when the call succeeds *)
  Lemma set_desc_shape t d :
    exists t1 oe,
      (t1 = t \/ exists w h, t1 = set_tkhd_dims t (u32 w) (u32 h))
      /\ snd (set_desc avc_parse hevc_parse t d) = match oe with Some e => stsd_add t1 e | None => t1 end
      /\ (fst (set_desc avc_parse hevc_parse t d) = OOk <-> oe <> None)
      /\ (forall e, oe = Some e -> se_dref e = 1).
  Proof.
    destruct d; cbn [set_desc];
      unfold set_avc, set_hevc, set_aac, set_ac3, set_ec3, set_wvtt, set_stpp;
      repeat match goal with |- context [match ?x with _ => _ end] => destruct x end; cbn [fst snd];
      (* the branch at hand names its result *)
      match goal with
      | |- context [stsd_add ?t1 ?e] => exists t1, (Some e)
      | |- context [set_tkhd_dims ?a ?b ?c] => exists (set_tkhd_dims a b c), None
      | _ => exists t, None
      end;
      (split; [first [left; reflexivity | right; eexists _, _; reflexivity]|]); (split; [reflexivity|]);
      (split; [split; [discriminate || (intros _; discriminate) | intros H; first [reflexivity | contradiction H; reflexivity]]|]);
      intros e0 H; first [discriminate H | injection H as <-; reflexivity].
  Qed.

  Lemma set_desc_core t d : core (snd (set_desc avc_parse hevc_parse t d)) = core t.
  Proof.
    destruct (set_desc_shape t d) as (t1 & oe & [-> | (w & h & ->)] & -> & _); destruct oe; reflexivity.
  Qed.

  Lemma core_id t t' : core t' = core t -> tk_id t' = tk_id t.
  Proof. unfold core. intros H. inversion H. reflexivity. Qed.

  Lemma replace_nth_length {A} k (x : A) l : length (replace_nth k x l) = length l.
  Proof. revert k. induction l as [|y l IH]; intros [|k]; cbn [replace_nth length]; try reflexivity. rewrite IH. reflexivity. Qed.

  Lemma replace_nth_map {A B} (f : A -> B) k x l y :
    nth_error l k = Some y -> f x = f y -> map f (replace_nth k x l) = map f l.
  Proof.
    revert k. induction l as [|z l IH]; intros [|k]; cbn [nth_error replace_nth map]; try discriminate.
    - intros [= ->] ->. reflexivity.
    - intros Hn Hf. rewrite (IH k Hn Hf). reflexivity.
  Qed.

  Lemma Forall_replace_nth {A} (P : A -> Prop) k x l : Forall P l -> P x -> Forall P (replace_nth k x l).
  Proof.
    revert k. induction l as [|y l IH]; intros [|k] Hl Hx; cbn [replace_nth]; try assumption;
      inversion Hl; subst; constructor; auto.
  Qed.

  Definition bound (s : st) (k : nat) : Prop := N.of_nat (length (traks s) + k) < 4294967295.

  Lemma step_setdesc_cores s k d :
    map core (traks (snd (step avc_parse hevc_parse s (SetDesc k d)))) = map core (traks s).
  Proof.
    cbn [step]. destruct (nth_error (traks s) k) as [t|] eqn:Hn; [|reflexivity].
    pose proof (set_desc_core t d) as Hc.
    destruct (set_desc avc_parse hevc_parse t d) as [oc t']. cbn [snd traks] in *.
    apply (replace_nth_map core k t' (traks s) t Hn Hc).
  Qed.

  Lemma step_setdesc_rest s k d :
    let s' := snd (step avc_parse hevc_parse s (SetDesc k d)) in
    children s' = children s /\ trexs s' = trexs s /\ next_id s' = next_id s /\ length (traks s') = length (traks s).
  Proof.
    cbn [step]. destruct (nth_error (traks s) k) as [t|]; [|repeat split; reflexivity].
    destruct (set_desc avc_parse hevc_parse t d) as [oc t']. cbn [snd children trexs next_id traks].
    rewrite replace_nth_length. repeat split; reflexivity.
  Qed.

  Lemma map_core_ids l l' : map core l' = map core l -> map tk_id l' = map tk_id l.
  Proof.
    intros H. pose (id_of := fun c : N * N * N * N * str * option str * mhdr => fst (fst (fst (fst (fst (fst c)))))).
    change tk_id with (fun t => id_of (core t)). rewrite <- !(map_map core id_of), H. reflexivity.
  Qed.

  Lemma next_above_cores s s' :
    map core (traks s') = map core (traks s) -> next_id s' = next_id s -> next_above s -> next_above s'.
  Proof.
    unfold next_above. intros Hc Hn H. rewrite Hn.
    apply map_core_ids in Hc.
    rewrite Forall_forall in *. intros t' Ht'.
    assert (Hin : In (tk_id t') (map tk_id (traks s'))) by (apply in_map; exact Ht').
    rewrite Hc in Hin. apply in_map_iff in Hin. destruct Hin as [t [Heq Ht]]. rewrite <- Heq. apply H. exact Ht.
  Qed.

  (* while fewer than 2^32-1 tracks exist the uint32 id and next-id computations do not wrap *)
  Lemma track_id_small s : bound s 1 ->
    let n := length (traks s) in
    u32 (N.of_nat n + 1) = N.of_nat (S n) /\ u32 (N.of_nat (S n) + 1) = N.of_nat (S n) + 1.
  Proof. unfold bound, u32. intros Hb. split; rewrite N.mod_small; lia. Qed.

  Lemma ids_below n l : map tk_id l = ids_upto n -> Forall (fun t => tk_id t < N.of_nat n + 1) l.
  Proof.
    intros Hi. apply Forall_forall. intros t Ht. apply (in_map tk_id) in Ht. rewrite Hi in Ht.
    apply in_ids_upto in Ht. lia.
  Qed.

  Lemma step_inv s o :
    bound s 1 -> inv_struct s -> next_above s ->
    let '(oc, s') := step avc_parse hevc_parse s o in
    inv_struct s' /\ next_above s' /\ (length (traks s') <= S (length (traks s)))%nat.
  Proof.
    intros Hb [Hc [Hi Ht]] Hn. destruct o as [ts m lang|k d].
    - (* AddEmptyTrack *)
      cbn [step]. unfold add_empty_track. destruct (track_id_small s Hb) as [-> ->].
      set (n := length (traks s)) in *.
      destruct (create_empty_trak (N.of_nat (S n)) ts m lang) as [t|] eqn:Hce.
      + destruct (create_empty_trak_some _ _ _ _ _ Hce) as (ht & hn & l & _ & _ & Et).
        assert (Htid : tk_id t = N.of_nat (S n)) by (rewrite Et; reflexivity).
        set (s1 := mkSt (children s) (traks s) (trexs s) (N.of_nat (S n) + 1)).
        destruct (moov_add_trak_rest s1 t) as (-> & -> & ->).
        rewrite (moov_add_trak_inv s1 t Hc). cbn [traks trexs next_id s1]. fold n.
        assert (Hlen : length (traks s ++ [t]) = S n) by (rewrite app_length; cbn [length]; lia).
        split; [|split].
        * unfold inv_struct. cbn [children traks trexs]. rewrite Hlen. split; [reflexivity|].
          rewrite map_app, Hi, Ht, ids_upto_S. cbn [map]. rewrite Htid. split; reflexivity.
        * unfold next_above. cbn [traks next_id]. apply Forall_app. split.
          -- eapply Forall_impl; [|exact (ids_below n _ Hi)]. cbn beta. intros; lia.
          -- constructor; [lia|constructor].
        * cbn [traks]. lia.
      + (* panic: only NextTrackID was written *)
        split; [repeat split; assumption|]. split; [|cbn [traks]; lia].
        unfold next_above. cbn [traks next_id]. eapply Forall_impl; [|exact (ids_below n _ Hi)]. cbn beta. intros; lia.
    - (* SetDesc *)
      pose proof (step_setdesc_cores s k d) as Hcores.
      pose proof (step_setdesc_rest s k d) as Hrest. cbv zeta in Hrest.
      destruct (step avc_parse hevc_parse s (SetDesc k d)) as [oc s']. cbn [snd] in *.
      destruct Hrest as [Hc' [Ht' [Hn' Hl']]].
      split; [|split].
      + unfold inv_struct. rewrite Hl', Hc', Ht'. apply map_core_ids in Hcores. rewrite Hcores.
        repeat split; assumption.
      + apply (next_above_cores s s'); assumption.
      + lia.
  Qed.

  (* induction over a history: n counts the calls still to come, so that an invariant may hold a budget (the
     uint32 track id, the uint32 entry count) that every call may draw on; a panic ends the history early, hence
     the first hypothesis *)
  Lemma run_from_ind (ok : op -> Prop) (P : nat -> st -> Prop) :
    (forall n s, P (S n) s -> P n s) ->
    (forall n s o, ok o -> P (S n) s -> P n (snd (step avc_parse hevc_parse s o))) ->
    forall ops s, Forall ok ops -> P (length ops) s -> P 0%nat (snd (run_from avc_parse hevc_parse s ops)).
  Proof.
    intros Hweak Hstep.
    assert (H0 : forall n s, P n s -> P 0%nat s) by (induction n as [|n IH]; auto).
    induction ops as [|o ops IH]; intros s Hok Hs; cbn [run_from snd]; [exact Hs|].
    inversion Hok as [|? ? Ho Hops]; subst.
    pose proof (Hstep _ s o Ho Hs) as Hs'. destruct (step avc_parse hevc_parse s o) as [oc s']. cbn [snd] in Hs'.
    destruct oc; try (specialize (IH s' Hops Hs'); destruct (run_from avc_parse hevc_parse s' ops); exact IH).
    exact (H0 _ _ Hs').
  Qed.

  Lemma run_from_inv ops s :
    bound s (length ops) -> inv_struct s -> next_above s ->
    inv_struct (snd (run_from avc_parse hevc_parse s ops)) /\ next_above (snd (run_from avc_parse hevc_parse s ops)).
  Proof.
    intros Hb Hs Hn.
    apply (proj2 (A := bound (snd (run_from avc_parse hevc_parse s ops)) 0)).
    apply (run_from_ind (fun _ => True) (fun n s => bound s n /\ inv_struct s /\ next_above s)).
    - unfold bound. intros n s0 (B & I). split; [lia|exact I].
    - intros n s0 o _ (B & I & A).
      assert (B1 : bound s0 1) by (unfold bound in *; lia).
      pose proof (step_inv s0 o B1 I A) as Hst. destruct (step avc_parse hevc_parse s0 o) as [oc s'].
      destruct Hst as (I' & A' & L). unfold bound in *. cbn [snd]. split; [lia|split; assumption].
    - apply Forall_forall. intros; exact I.
    - auto.
  Qed.

  Lemma empty_init_inv : inv_struct empty_init /\ next_above empty_init.
  Proof.
    split.
    - unfold inv_struct. cbn. repeat split; reflexivity.
    - unfold next_above. cbn. constructor.
  Qed.

  Lemma inv_all ops :
    N.of_nat (length ops) < 4294967295 ->
    let s := snd (run avc_parse hevc_parse ops) in inv_struct s /\ next_above s.
  Proof.
    intros Hb. cbv zeta. unfold run. destruct empty_init_inv as [H1 H2].
    apply run_from_inv; assumption.
  Qed.

  (* what fragment decoding relies on: ids are unique and MvexBox.GetTrex(id) finds a trex for every track *)
  Lemma ids_upto_nodup n : NoDup (ids_upto n).
  Proof. apply FinFun.Injective_map_NoDup; [intros a b H; lia|apply seq_NoDup]. Qed.

  Lemma trex_lookup ops :
    N.of_nat (length ops) < 4294967295 ->
    let s := snd (run avc_parse hevc_parse ops) in
    NoDup (map tk_id (traks s)) /\ NoDup (trexs s)
    /\ (forall t, In t (traks s) -> In (tk_id t) (trexs s))
    /\ length (trexs s) = length (traks s).
  Proof.
    intros Hb. cbv zeta. destruct (inv_all ops Hb) as [[Hc [Hi Ht]] _].
    set (s := snd (run avc_parse hevc_parse ops)) in *.
    rewrite Hi, Ht. repeat split; try apply ids_upto_nodup.
    - intros t Hin. rewrite <- Hi. apply in_map. exact Hin.
    - apply ids_upto_length.
  Qed.
End P.
