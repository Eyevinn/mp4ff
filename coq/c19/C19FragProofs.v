(* C19FragProofs.v — the link between C19_roundtrip and C05's fragment theorems (which take ANY trex) for "fragments
   created for its track ids decode against it": MvexBox.GetTrex on the tree of an invariant state returns, for every
   track id of the init, the trex CreateTrex built (that id, default duration / size / flags 0, sample description
   index 1).  The composition itself is C19_init_trex / C19_fragments_decode* in C19Theorems.v. *)
From V.lib Require Import Base.
From V.c19 Require Import C19BoxCodec C19BoxModel.
From V.c19 Require Import C19Model C19Spec C19InvProofs C19RecModel C19TreeModel C19TreeProofs C19FragModel.
From V.c05 Require C05Model.

Lemma find_trex_built l id :
  In id l -> find (is_trex_for id) (map trex_box l) = Some (trex_box id).
Proof.
  induction l as [|a l IH]; intros Hin; [destruct Hin|].
  cbn [map find]. unfold trex_box at 1, leafb at 1. cbn [is_trex_for].
  destruct (a =? id) eqn:E.
  - apply N.eqb_eq in E. subst. reflexivity.
  - destruct Hin as [->|Hin]; [rewrite N.eqb_refl in E; discriminate|]. apply IH. exact Hin.
Qed.

Lemma get_trex_built s cs id :
  children s = MCmvhd :: MCmvex :: cs -> In id (trexs s) ->
  forall bs, children_boxes s (children s) = Some bs ->
    get_trex [ftyp_box; contb n_moov bs] id = Some (C05Model.mkTrex id 0 0 0)
    /\ get_trex_dsdi [ftyp_box; contb n_moov bs] id = Some 1.
Proof.
  intros Hc Hin bs Hb. destruct (find_mvex_built s cs bs Hc Hb) as [E1 E2]. unfold get_trex, get_trex_dsdi.
  rewrite E1, E2, (find_trex_built (trexs s) id Hin). split; reflexivity.
Qed.

Lemma built_get_trex s ts :
  inv_struct s -> tree_of s = Some ts -> forall t, In t (traks s) ->
    get_trex ts (tk_id t) = Some (C05Model.mkTrex (tk_id t) 0 0 0) /\ get_trex_dsdi ts (tk_id t) = Some 1.
Proof.
  intros (Hc & Hids & Htx) Ht t Hin. unfold tree_of in Ht.
  destruct (children_boxes s (children s)) as [bs|] eqn:Hb; [|discriminate]. injection Ht as <-.
  apply (get_trex_built s (map MCtrak (seq 0 (length (traks s))))); [exact Hc| |exact Hb].
  rewrite Htx, <- Hids. apply in_map. exact Hin.
Qed.
