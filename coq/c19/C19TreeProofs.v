(* C19TreeProofs.v — about C19TreeModel.v:
   - the tree comparison of roundtrip_ok is equality (mboxes_eqb_eq), so roundtrip_ok s = true MEANS
     "C01's decoder applied to C01's encoding of the init tree returns that tree, recognised as a fragmented init,
      a trex for every track" (C19_roundtrip_checker_sound);
   - for EVERY state satisfying the structural invariant (all histories: C19_inv) the built tree passes
     File.AddChild's fragmented-init test and has a trex for every track id (built_fragmented, built_trex). *)
From Coq Require Import String Ascii.
From V.lib Require Import Base.
From V.c19 Require Import C19BoxCodec C19BoxModel C19BoxEq.
From V.c19 Require Import C19Model C19Spec C19InvProofs C19RecModel C19TreeModel.

Lemma hdr_eqb_eq a b : hdr_eqb a b = true -> a = b.
Proof.
  unfold hdr_eqb. intros H. apply andb_true_iff in H. destruct H as [H H3]. apply andb_true_iff in H. destruct H as [H1 H2].
  destruct a, b. simpl in *. apply bytes_eqb_eq in H1. apply N.eqb_eq in H2, H3. subst. reflexivity.
Qed.

Lemma leaf_eqb_eq a b : leaf_eqb a b = true -> a = b.
Proof. unfold leaf_eqb. destruct (leaf_eq_dec a b); [auto|discriminate]. Qed.

Lemma rsvT_eqb_eq a b : rsvT_eqb a b = true -> a = b.
Proof.
  revert b. induction a as [|x a IH]; intros [|y b] H; cbn [rsvT_eqb] in H; try discriminate; [reflexivity|].
  apply andb_true_iff in H. destruct H as [H1 H2]. apply bytes_eqb_eq in H1. subst. f_equal. now apply IH.
Qed.

Section MboxInd.
  Variable P : mbox -> Prop.
  Hypothesis Hleaf : forall h l r, P (MLeaf h l r).
  Hypothesis Hcont : forall h cs, Forall P cs -> P (MCont h cs).
  Hypothesis Hunk : forall h p, P (MUnknown h p).
  Hypothesis Hpre : forall h l r cs, Forall P cs -> P (MPre h l r cs).
  Fixpoint mbox_ind_nested (t : mbox) : P t :=
    match t with
    | MLeaf h l r => Hleaf h l r
    | MCont h cs => Hcont h cs ((fix go (cs : list mbox) : Forall P cs :=
                                   match cs with [] => Forall_nil _ | c :: t => Forall_cons _ (mbox_ind_nested c) (go t) end) cs)
    | MUnknown h p => Hunk h p
    | MPre h l r cs => Hpre h l r cs ((fix go (cs : list mbox) : Forall P cs :=
                                         match cs with [] => Forall_nil _ | c :: t => Forall_cons _ (mbox_ind_nested c) (go t) end) cs)
    end.
End MboxInd.

(* the local list comparison inside mbox_eqb *)
Definition all2 :=
  fix all2 (x y : list mbox) : bool :=
    match x, y with
    | [], [] => true
    | p :: x', q :: y' => mbox_eqb p q && all2 x' y'
    | _, _ => false
    end.

Lemma all2_eq cs : Forall (fun a => forall b, mbox_eqb a b = true -> a = b) cs ->
  forall ds, all2 cs ds = true -> cs = ds.
Proof.
  induction 1 as [|c cs Hc _ IH]; intros [|d ds] H; cbn [all2] in H; try discriminate; [reflexivity|].
  apply andb_true_iff in H. destruct H as [H1 H2]. f_equal; [apply Hc; exact H1|apply IH; exact H2].
Qed.

Lemma mbox_eqb_eq a : forall b, mbox_eqb a b = true -> a = b.
Proof.
  induction a as [h l r|h cs IH|h p|h l r cs IH] using mbox_ind_nested; intros [h2 l2 r2|h2 c2|h2 p2|h2 l2 r2 c2] H;
    cbn [mbox_eqb] in H; try discriminate.
  - apply andb_true_iff in H. destruct H as [H H3]. apply andb_true_iff in H. destruct H as [H1 H2].
    apply hdr_eqb_eq in H1. apply leaf_eqb_eq in H2. apply rsvT_eqb_eq in H3. subst. reflexivity.
  - apply andb_true_iff in H. destruct H as [H1 H2]. apply hdr_eqb_eq in H1. fold all2 in H2.
    apply (all2_eq cs IH) in H2. subst. reflexivity.
  - apply andb_true_iff in H. destruct H as [H1 H2]. apply hdr_eqb_eq in H1. apply bytes_eqb_eq in H2. subst. reflexivity.
  - apply andb_true_iff in H. destruct H as [H H4]. apply andb_true_iff in H. destruct H as [H H3].
    apply andb_true_iff in H. destruct H as [H1 H2]. fold all2 in H4.
    apply hdr_eqb_eq in H1. apply leaf_eqb_eq in H2. apply rsvT_eqb_eq in H3. apply (all2_eq cs IH) in H4. subst. reflexivity.
Qed.

Lemma mboxes_eqb_eq x : forall y, mboxes_eqb x y = true -> x = y.
Proof.
  induction x as [|a x IH]; intros [|b y] H; cbn [mboxes_eqb] in H; try discriminate; [reflexivity|].
  apply andb_true_iff in H. destruct H as [H1 H2]. f_equal; [apply mbox_eqb_eq; exact H1|apply IH; exact H2].
Qed.

Lemma children_boxes_app s a b :
  children_boxes s (a ++ b) =
  match children_boxes s a, children_boxes s b with Some x, Some y => Some (x ++ y) | _, _ => None end.
Proof.
  induction a as [|c a IH]; cbn [app children_boxes].
  - destruct (children_boxes s b); reflexivity.
  - rewrite IH. destruct (child_box s c); [|reflexivity].
    destruct (children_boxes s a); [|reflexivity]. destruct (children_boxes s b); reflexivity.
Qed.

(* the stts chain of a trak built by trak_box: empty stts *)
Lemma trak_box_stts t b : trak_box t = Some b -> exists h tc, b = MCont h tc /\ h_name h = n_trak /\ trak_stts_entries tc = Some O.
Proof.
  unfold trak_box. destruct (entries_boxes (sd_entries t)) as [es|]; [|discriminate].
  intros [= <-]. unfold contb. eexists _, _. split; [reflexivity|]. split; [reflexivity|].
  destruct (el_lang t); destruct (mi_hdr t); reflexivity.
Qed.

Lemma built_fragmented s ts :
  inv_struct s -> traks s <> [] -> tree_of s = Some ts -> is_fragmented_init ts = true.
Proof.
  intros (Hc & _ & _) Hne. unfold tree_of. rewrite Hc.
  destruct (traks s) as [|t0 tr] eqn:Ht; [congruence|].
  cbn [length seq map base_children app children_boxes child_box nth_error].
  rewrite Ht. cbn [nth_error].
  destruct (trak_box t0) as [b0|] eqn:Hb; [|discriminate].
  destruct (children_boxes s (map MCtrak (seq 1 (length tr)))) as [rest|]; [|discriminate].
  intros [= <-].
  apply trak_box_stts in Hb. destruct Hb as (h & tc & -> & Hn & Hs).
  unfold is_fragmented_init, find_cont, ftyp_box, leafb, contb, mvhd_box. cbn [find h_name hdr8].
  change (bytes_eqb n_moov n_moov) with true. cbn [find].
  change (bytes_eqb n_mvex n_trak) with false. rewrite Hn. change (bytes_eqb n_trak n_trak) with true.
  unfold leafb. cbn [h_name hdr8]. change (bytes_eqb n_mvex n_trak) with false. cbv iota. rewrite Hs. reflexivity.
Qed.

(* where GetTrex looks: moov is found in the file, mvex in moov, and its children are the trex boxes *)
Lemma find_mvex_built s cs bs :
  children s = MCmvhd :: MCmvex :: cs -> children_boxes s (children s) = Some bs ->
  find_cont n_moov [ftyp_box; contb n_moov bs] = Some bs /\ find_cont n_mvex bs = Some (map trex_box (trexs s)).
Proof.
  intros Hc. rewrite Hc. cbn [children_boxes child_box].
  destruct (children_boxes s cs) as [rest|]; [|discriminate]. intros [= <-]. split; reflexivity.
Qed.

Lemma has_trex_built s cs id :
  children s = MCmvhd :: MCmvex :: cs -> In id (trexs s) ->
  forall bs, children_boxes s (children s) = Some bs -> has_trex [ftyp_box; contb n_moov bs] id = true.
Proof.
  intros Hc Hin bs Hb. destruct (find_mvex_built s cs bs Hc Hb) as [E1 E2]. unfold has_trex. rewrite E1, E2.
  apply existsb_exists. exists (trex_box id). split; [apply in_map; exact Hin|]. apply N.eqb_refl.
Qed.

Lemma built_trex s ts :
  inv_struct s -> tree_of s = Some ts -> forall t, In t (traks s) -> has_trex ts (tk_id t) = true.
Proof.
  intros (Hc & Hids & Htx) Ht t Hin. unfold tree_of in Ht.
  destruct (children_boxes s (children s)) as [bs|] eqn:Hb; [|discriminate]. injection Ht as <-.
  apply (has_trex_built s (map MCtrak (seq 0 (length (traks s))))); [exact Hc| |exact Hb].
  rewrite Htx, <- Hids. apply in_map. exact Hin.
Qed.

(* every history: the invariant of C19_inv gives both for the tree of the final state *)
Lemma built_all (avc_parse : str -> option avc_info) (hevc_parse : str -> option (N * N * list N)) ops :
  N.of_nat (length ops) < 4294967295 ->
  let s := snd (run avc_parse hevc_parse ops) in
  forall ts, tree_of s = Some ts ->
    (traks s <> [] -> is_fragmented_init ts = true) /\ (forall t, In t (traks s) -> has_trex ts (tk_id t) = true).
Proof.
  intros Hb s ts Ht. destruct (inv_all avc_parse hevc_parse ops Hb) as [Hi _]. fold s in Hi. split.
  - intros Hne. exact (built_fragmented s ts Hi Hne Ht).
  - exact (built_trex s ts Hi Ht).
Qed.
