(* C19AacHistProofs.v — "the DECODED init carries the configuration supplied", at the level of whole histories:
   (1) provenance: in the final state of EVERY history every sample entry with an esds is the entry some SetAACDescriptor(o, f)
       call built (esds_prov), by induction over the history;
   (2) position: the box of every sample entry of every track occurs inside the tree of the init (inside: below
       moov / trak / mdia / minf / stbl / stsd), hence inside the DECODED tree, which C19_roundtrip shows equal to the built one;
   (3) content: C19AacProofs.aac_typed (the typed esds leaf, C18's configuration codec).
   Together: decoded_init_aac. *)
From Coq Require Import String Ascii.
From V.lib Require Import Base.
From V.c19 Require Import C19BoxCodec C19BoxModel.
From V.c19 Require Import C19Model C19Spec C19InvProofs C19DescProofs C19RecModel C19TreeModel C19TreeProofs C19PrintParseProofs
  C19RoundtripProofs C19AacProofs.
From V.c18 Require C18Model C18EntryModel.

Definition esds_prov (e : sentry) : Prop :=
  forall asc, se_cfg e = CfgEsds asc ->
    exists t0 o f t0', f < 8388608 /\ set_aac t0 o f = (OOk, t0') /\ sd_entries t0' = sd_entries t0 ++ [e].

(* the frequencies of the SetAACDescriptor calls of a history are below 2^23 (hypothesis of C19_descriptor_aac_typed) *)
Definition aac_small (o : op) : Prop :=
  match o with SetDesc _ (DAac _ f) => f < 8388608 | _ => True end.

Section P.
  Variable avc_parse : str -> option avc_info.
  Variable hevc_parse : str -> option (N * N * list N).

  (* the entry a successful call adds: built by SetAACDescriptor, or without an esds *)
  Lemma new_entry_prov k t d t' e :
    aac_small (SetDesc k d) -> set_desc avc_parse hevc_parse t d = (OOk, t') ->
    sd_entries t' = sd_entries t ++ [e] -> esds_prov e.
  Proof.
    intros Hs H He asc Hcfg.
    assert (Hsame : forall e0, sd_entries t' = sd_entries t ++ [e0] -> e = e0).
    { intros e0 He0. rewrite He0 in He. apply app_inv_head in He. injection He as <-. reflexivity. }
    destruct d as [name spss ppss incl|name vpss spss ppss seis incl|o f|d|d|c|a b c]; cbn [set_desc] in H.
    - apply set_avc_ok in H. destruct H as (?&?&?&?&?&?&?&?&?&?&_&_&_&_&_&_&He0&_).
      rewrite (Hsame _ He0) in Hcfg. discriminate Hcfg.
    - apply set_hevc_ok in H. destruct H as (?&?&?&?&?&_&_&_&He0&_). rewrite (Hsame _ He0) in Hcfg. discriminate Hcfg.
    - exists t, o, f, t'. repeat split; assumption.
    - destruct d. apply set_ac3_ok in H. destruct H as [He0 _]. rewrite (Hsame _ He0) in Hcfg. discriminate Hcfg.
    - apply set_ec3_entry in H. destruct H as (n & r & ->). rewrite (Hsame _ eq_refl) in Hcfg. discriminate Hcfg.
    - rewrite set_wvtt_ok in H. injection H as <-. rewrite (Hsame _ eq_refl) in Hcfg. discriminate Hcfg.
    - rewrite set_stpp_ok in H. injection H as <-. rewrite (Hsame _ eq_refl) in Hcfg. discriminate Hcfg.
  Qed.

  Lemma esds_all ops : Forall aac_small ops ->
    Forall (fun t => Forall esds_prov (sd_entries t)) (traks (snd (run avc_parse hevc_parse ops))).
  Proof. exact (entries_run avc_parse hevc_parse aac_small esds_prov new_entry_prov ops). Qed.
End P.

Inductive inside (b : mbox) : mbox -> Prop :=
| in_here : inside b b
| in_cont h cs c : In c cs -> inside b c -> inside b (MCont h cs)
| in_pre h l r cs c : In c cs -> inside b c -> inside b (MPre h l r cs).

Lemma entries_boxes_in es : forall bs e,
  entries_boxes es = Some bs -> In e es -> exists b, entry_box e = Some b /\ In b bs.
Proof.
  induction es as [|e0 es IH]; intros bs e Hb Hin; [destruct Hin|].
  cbn [entries_boxes] in Hb. destruct (entry_box e0) as [b0|] eqn:E0; [|discriminate].
  destruct (entries_boxes es) as [bs'|] eqn:E1; [|discriminate]. injection Hb as <-.
  destruct Hin as [<-|Hin].
  - exists b0. split; [exact E0|left; reflexivity].
  - destruct (IH bs' e eq_refl Hin) as (b & Hb1 & Hb2). exists b. split; [exact Hb1|right; exact Hb2].
Qed.

Lemma trak_box_inside t tb e :
  trak_box t = Some tb -> In e (sd_entries t) -> exists b, entry_box e = Some b /\ inside b tb.
Proof.
  unfold trak_box. destruct (entries_boxes (sd_entries t)) as [es|] eqn:Ee; [|discriminate]. intros [= <-] Hin.
  destruct (entries_boxes_in _ _ e Ee Hin) as (b & Hb & Hbin). exists b. split; [exact Hb|].
  unfold contb, preb.
  eapply in_cont; [right; left; reflexivity|].
  eapply in_cont; [right; right; apply in_or_app; right; left; reflexivity|].
  eapply in_cont; [right; right; left; reflexivity|].
  eapply in_cont; [left; reflexivity|].
  eapply in_pre; [exact Hbin|apply in_here].
Qed.

Lemma children_boxes_in s cs : forall bs i t,
  children_boxes s cs = Some bs -> In (MCtrak i) cs -> nth_error (traks s) i = Some t ->
  exists tb, trak_box t = Some tb /\ In tb bs.
Proof.
  induction cs as [|c cs IH]; intros bs i t Hb Hin Hn; [destruct Hin|].
  cbn [children_boxes] in Hb. destruct (child_box s c) as [b0|] eqn:E0; [|discriminate].
  destruct (children_boxes s cs) as [bs'|] eqn:E1; [|discriminate]. injection Hb as <-.
  destruct Hin as [->|Hin].
  - cbn [child_box] in E0. rewrite Hn in E0. exists b0. split; [exact E0|left; reflexivity].
  - destruct (IH bs' i t eq_refl Hin Hn) as (tb & H1 & H2). exists tb. split; [exact H1|right; exact H2].
Qed.

Lemma tree_inside s ts t e :
  inv_struct s -> tree_of s = Some ts -> In t (traks s) -> In e (sd_entries t) ->
  exists b top, entry_box e = Some b /\ In top ts /\ inside b top.
Proof.
  intros (Hc & _ & _) Ht Hin He. unfold tree_of in Ht.
  destruct (children_boxes s (children s)) as [bs|] eqn:Hb; [|discriminate]. injection Ht as <-.
  destruct (In_nth_error _ _ Hin) as [i Hn].
  assert (Hi : In (MCtrak i) (children s)).
  { rewrite Hc. apply in_or_app. right. apply in_map. apply in_seq.
    assert (i < length (traks s))%nat by (apply nth_error_Some; congruence). lia. }
  destruct (children_boxes_in s _ bs i t Hb Hi Hn) as (tb & Htb & Hbin).
  destruct (trak_box_inside t tb e Htb He) as (b & Hbe & Hins).
  exists b, (contb n_moov bs). split; [exact Hbe|]. split; [right; left; reflexivity|].
  unfold contb. eapply in_cont; [exact Hbin|exact Hins].
Qed.

Theorem decoded_init_aac (avc_parse : str -> option avc_info) (hevc_parse : str -> option (N * N * list N)) ops :
  N.of_nat (length ops) < 4294967295 -> Forall aac_small ops ->
  let s := snd (run avc_parse hevc_parse ops) in
  args_okb s = true -> forall ts, tree_of s = Some ts -> forallb enc_fits ts = true ->
  exists bs, encode_seq false ts = Ok bs /\ decode_file bs = Ok ts
    /\ forall t e asc, In t (traks s) -> In e (sd_entries t) -> se_cfg e = CfgEsds asc ->
       exists o f b top,
         f < 8388608
         /\ e = mkSE (BS "mp4a") 1 (if o =? 29 then 1 else 2) 16 (f mod 65536) (CfgEsds asc)
         /\ b = preb (LAudio (BS "mp4a") 1 (if o =? 29 then 1 else 2) 16 (f mod 65536)) [leafb (esds_leaf asc)]
         /\ In top ts /\ inside b top
         /\ esds_dec_config (esds_leaf asc) = Some asc
         /\ C18Model.decode_asc asc = Ok (C18EntryModel.set_aac_asc o (Z.of_N f))
         /\ C18Model.a_ot (C18EntryModel.set_aac_asc o (Z.of_N f)) = o
         /\ C18Model.a_freq (C18EntryModel.set_aac_asc o (Z.of_N f)) = Z.of_N f.
Proof.
  intros Hb Hsm s Ha ts Ht Hf.
  destruct (roundtrip_all avc_parse hevc_parse ops Hb Ha ts Ht Hf) as (bs & He & Hd & _ & _).
  exists bs. split; [exact He|]. split; [exact Hd|].
  intros t e asc Hin Hein Hcfg.
  pose proof (esds_all avc_parse hevc_parse ops Hsm) as Hinv. fold s in Hinv.
  rewrite Forall_forall in Hinv. specialize (Hinv t Hin). rewrite Forall_forall in Hinv. specialize (Hinv e Hein asc Hcfg).
  destruct Hinv as (t0 & o & f & t0' & Hfs & Hset & Hent).
  destruct (aac_typed t0 o f t0' Hfs Hset) as (asc' & e' & b & He1 & He2 & Hbox & Hb2 & _ & Hdc & _ & Hdec & Hot & Hfr & _).
  rewrite Hent in He1. apply app_inv_head in He1. injection He1 as <-.
  assert (asc' = asc) by (rewrite He2 in Hcfg; cbn [se_cfg] in Hcfg; congruence). subst asc'.
  destruct (inv_all avc_parse hevc_parse ops Hb) as [Hi _]. fold s in Hi.
  destruct (tree_inside s ts t e Hi Ht Hin Hein) as (b' & top & Hb' & Htop & Hins).
  rewrite Hbox in Hb'. injection Hb' as <-.
  exists o, f, b, top. repeat split; assumption.
Qed.
