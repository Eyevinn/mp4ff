(* C19TreeScopeProofs.v — a complete small scope inside the hypotheses of C19_roundtrip: every history of one or two
   AddEmptyTrack calls over the seven supported media types and three kinds of language tag (two-track histories:
   7 first tracks x 27 second tracks), each track followed by none or one of the descriptor call sequences fitting it
   (AVC avc1/avc3 with and without parameter sets, HEVC hvc1/hev1 with and without SEI, AVC then HEVC on the same
   track, AAC-LC, HE-AAC v2, AC-3, E-AC-3 with and without dependent substreams, wvtt default/explicit, stpp
   default/explicit).  That the final state of each is in range, has a tree and sizes that fit is decided by
   evaluation; the round trip is then roundtrip_all. *)
From Coq Require Import String Ascii.
From V.lib Require Import Base.
From V.c19 Require Import C19BoxCodec C19BoxModel.
From V.c19 Require Import C19Model C19Spec C19Witness C19RecModel C19TreeModel C19TreeProofs C19RoundtripProofs.

Definition ss_langs : list str := [BS "swe"; BS "en"; BS "zh-Hant"].

Definition ss_sps_a : list str := [[103; 100; 0; 32; 172]; [103; 100; 0; 31]].
Definition ss_pps_a : list str := [[104; 181]].
Definition ss_video : list (list desc) :=
  [ []; [DAvc (BS "avc1") ss_sps_a ss_pps_a true]; [DAvc (BS "avc3") ss_sps_a ss_pps_a false];
    [DHevc (BS "hvc1") [[64; 1]] [[66; 1; 1]] [[68; 1]; [68; 2]] [[78; 1]] true];
    [DHevc (BS "hev1") [[64; 1]] [[66; 1; 1]] [] [] false];
    [DAvc (BS "avc3") ss_sps_a [] true; DHevc (BS "hev1") [] [[66; 1; 1]] [[68; 1]] [] true] ].
Definition ss_audio : list (list desc) :=
  [ []; [DAac 2 48000]; [DAac 29 24000]; [DAc3 (mkDac3 0 8 0 7 1 10)]; [DEc3 (mkDec3 1133 [mkEc3Sub 0 16 0 0 7 1 1 3])];
    [DEc3 (mkDec3 256 [mkEc3Sub 1 16 1 2 2 0 0 0; mkEc3Sub 2 16 0 0 7 1 0 0])] ].
Definition ss_wvtt : list (list desc) := [ []; [DWvtt []]; [DWvtt (BS "WEBVTT - title")] ].
Definition ss_stpp : list (list desc) :=
  [ []; [DStpp [] [] []]; [DStpp (BS "http://www.w3.org/ns/ttml") (BS "schema.xsd") (BS "image/png")] ].

Definition ss_media : list (str * list (list desc)) :=
  [ (BS "video", ss_video); (BS "audio", ss_audio); (BS "subtitle", ss_stpp); (BS "subtitles", ss_stpp);
    (BS "stpp", ss_stpp); (BS "text", ss_wvtt); (BS "wvtt", ss_wvtt) ].

(* one track at index k: AddEmptyTrack then the descriptor calls *)
Definition ss_tracks (k : nat) (ts : N) (langs : list str) : list (list op) :=
  flat_map (fun md => flat_map (fun lang => map (fun ds => AddEmptyTrack ts (fst md) lang :: map (SetDesc k) ds) (snd md)) langs)
           ss_media.

(* first tracks of the two-track histories: one per media type, with its last descriptor sequence *)
Definition ss_first : list (list op) :=
  map (fun md => AddEmptyTrack 1000 (fst md) (BS "zh-Hant") :: map (SetDesc 0) (last (snd md) [])) ss_media.

Definition small_scope : list (list op) :=
  [[]] ++ ss_tracks 0 90000 ss_langs
  ++ flat_map (fun h1 => map (fun h2 => h1 ++ h2) (ss_tracks 1 48000 [BS "pt-BR"])) ss_first.

(* the hypotheses of roundtrip_all on the final state of one history *)
Definition ss_in_range (ops : list op) : bool :=
  let s := snd (run ex_avc_parse ex_hevc_parse ops) in
  (N.of_nat (length ops) <? 4294967295) && args_okb s
  && match tree_of s with Some ts => forallb enc_fits ts | None => false end.

Lemma small_scope_in_range : forallb ss_in_range small_scope = true.
Proof. vm_compute. reflexivity. Qed.

Lemma small_scope_size : lenN small_scope = 271.
Proof. vm_compute. reflexivity. Qed.
