(* C19ArgsProofs.v — the hypothesis args_okb of C19_roundtrip follows from hypotheses on the ARGUMENTS of the calls:
   if every AddEmptyTrack has a 32-bit timescale and a language tag that is 3 bytes long or has two or more non-NUL
   bytes, every Set{AVC,HEVC}Descriptor gets parameter-set lists that fit the record's count/length fields, and the SPS
   parsers answer in the ranges of their Go types, then the final state of ANY such history satisfies args_okb. *)
From Coq Require Import String Ascii.
From V.lib Require Import Base.
From V.c19 Require Import C19BoxCodec C19BoxModel.
From V.c19 Require Import C19Model C19Spec C19InvProofs C19DescProofs C19RecModel C19RecLinkProofs C19TreeModel C19TreeProofs.
From V.c19 Require Import C19AacProofs.

Definition lang_okb (lang : str) : bool := Nat.eqb (length lang) 3 || ((2 <=? lenN lang) && no_nulb lang).
Definition desc_args_okb (d : desc) : bool :=
  match d with
  | DAvc _ spss ppss _ => nalus_fit 32 spss && nalus_fit 256 ppss
  | DHevc _ vpss spss ppss seis _ => nalus_fit 65536 vpss && nalus_fit 65536 spss && nalus_fit 65536 ppss && nalus_fit 65536 seis
  (* samplingFrequency is a non-negative Go int *)
  | DAac _ f => f <? 9223372036854775808
  | _ => true
  end.
Definition op_args_okb (o : op) : bool :=
  match o with
  | AddEmptyTrack ts _ lang => (ts <? 4294967296) && lang_okb lang
  | SetDesc _ d => desc_args_okb d
  end.

Lemma u16_lt x : u16 x < 65536. Proof. unfold u16. lia. Qed.
Lemma u32_lt x : u32 x < 4294967296. Proof. unfold u32. lia. Qed.

(* a trak that is fine, with room for k more sample entries *)
Definition trak_inv (k : nat) (t : trak) : Prop :=
  trak_okb t = true /\ N.of_nat (length (sd_entries t) + k) < 4294967296.

Lemma stsd_add_inv k t e : trak_inv (S k) t -> entry_okb e = true -> trak_inv k (stsd_add t e).
Proof.
  intros [Hok Hb] He. unfold trak_inv, trak_okb, stsd_add in *.
  cbn [tk_id tk_volume tk_width tk_height md_timescale md_lang hd_type el_lang sd_entries] in *.
  rewrite app_length. cbn [length]. split; [|lia].
  apply andb_true_iff in Hok. destruct Hok as [Hok HF]. apply andb_true_iff in Hok. destruct Hok as [HA HC].
  rewrite HA. cbn [andb]. rewrite forallb_app. cbn [forallb]. rewrite He, HF. cbn [andb].
  unfold lenN. rewrite app_length. cbn [length]. rewrite andb_true_r. apply N.ltb_lt. lia.
Qed.

Lemma trak_inv_weaken k t : trak_inv (S k) t -> trak_inv k t.
Proof. intros [H1 H2]. split; [exact H1|lia]. Qed.

Lemma dims_inv k t w h : w < 4294967296 -> h < 4294967296 -> trak_inv k t -> trak_inv k (set_tkhd_dims t w h).
Proof.
  intros Hw Hh [Hok Hb]. unfold trak_inv, trak_okb, set_tkhd_dims in *.
  cbn [tk_id tk_volume tk_width tk_height md_timescale md_lang hd_type el_lang sd_entries] in *. split; [|exact Hb].
  repeat (apply andb_true_iff in Hok; let K := fresh "K" in destruct Hok as [Hok K]).
  apply N.ltb_lt in Hw, Hh. rewrite Hw, Hh.
  repeat (apply andb_true_iff; split); first [assumption | reflexivity].
Qed.

Definition avc_parser_ok (p : str -> option avc_info) : Prop :=
  forall sps w h pr c l x, p sps = Some (w, h, (pr, c, l, x)) -> pr < 256 /\ c < 256 /\ l < 256.
Definition hevc_parser_ok (p : str -> option (N * N * list N)) : Prop :=
  forall sps w h cfg, p sps = Some (w, h, cfg) -> hevc_cfg_ok cfg = true /\ nth 5 cfg 0 < 256.

Lemma lt_b a b : a < b -> (a <? b) = true. Proof. intros H. apply N.ltb_lt. exact H. Qed.

Lemma nalu_ok_16b l : forallb nalu_ok l = true -> nalus16b l = true.
Proof. intros H. exact H. Qed.

Section Args.
  Variable avc_parse : str -> option avc_info.
  Variable hevc_parse : str -> option (N * N * list N).
  Hypothesis Havc : avc_parser_ok avc_parse.
  Hypothesis Hhevc : hevc_parser_ok hevc_parse.

  Lemma entry_simple name a b c cfg :
    a < 65536 -> b < 65536 -> c < 65536 ->
    match cfg with
    | CfgEsds asc => bytes_eqb name n_mp4a = true /\ lenN asc <= 100
    | CfgDac3 _ => bytes_eqb name n_ac3 = true
    | CfgDec3 _ => bytes_eqb name n_ec3 = true
    | CfgVttC _ | CfgStpp _ _ _ => True
    | _ => False
    end -> entry_okb (mkSE name 1 a b c cfg) = true.
  Proof.
    intros Ha Hb Hc H. unfold entry_okb. cbn [se_dref se_a se_b se_c se_cfg se_name].
    rewrite (lt_b _ _ Ha), (lt_b _ _ Hb), (lt_b _ _ Hc). cbn [andb].
    destruct cfg; try contradiction; try exact H; try reflexivity.
    destruct H as [H1 H2]. rewrite H1. apply N.leb_le. exact H2.
  Qed.

  Lemma new_entry_okb t d t' e :
    desc_args_okb d = true -> set_desc avc_parse hevc_parse t d = (OOk, t') ->
    sd_entries t' = sd_entries t ++ [e] -> entry_okb e = true.
  Proof using Havc Hhevc.
    intros Hd H He.
    assert (Hsame : forall e0, sd_entries t' = sd_entries t ++ [e0] -> e = e0).
    { intros e0 He0. rewrite He0 in He. apply app_inv_head in He. injection He as <-. reflexivity. }
    destruct d as [name spss ppss incl|name vpss spss ppss seis incl|o f|d|d|c|a b c]; cbn [set_desc desc_args_okb] in *.
    - apply andb_true_iff in Hd. destruct Hd as [Fs Fp].
      destruct (fit_split _ _ Fs) as [Fs1 Fs2]. destruct (fit_split _ _ Fp) as [Fp1 Fp2].
      apply set_avc_ok in H. destruct H as (sps0 & rest & w & h & p & c & l & cf & bl & bc & _ & Hp & Hcf & Hbl & Hbc & Hn & He0 & _).
      rewrite (Hsame _ He0). destruct (Havc _ _ _ _ _ _ _ Hp) as (P1 & P2 & P3).
      unfold entry_okb. cbn [se_dref se_a se_b se_c se_cfg se_name ac_profile ac_compat ac_level ac_sps ac_pps ac_chroma ac_bdl ac_bdc].
      destruct Hn as [-> | ->]; destruct incl;
        repeat (apply andb_true_iff; split); try reflexivity; try assumption;
        apply N.ltb_lt; first [assumption | apply u16_lt | lia].
    - apply andb_true_iff in Hd. destruct Hd as [Hd Fe]. apply andb_true_iff in Hd. destruct Hd as [Hd Fp].
      apply andb_true_iff in Hd. destruct Hd as [Fv Fs].
      apply set_hevc_ok in H. destruct H as (sps0 & rest & w & h & cfg & _ & Hp & Hn & He0 & _).
      rewrite (Hsame _ He0). destruct (Hhevc _ _ _ _ Hp) as [Hcfg Hlvl].
      destruct (hevc_arrays_ok name vpss spss ppss seis incl Fv Fs Fp Fe) as (A1 & A2 & A3).
      destruct (hvcrec_of_ok cfg _ Hcfg A1 A2) as (space & tier & idc & compat & constr & level & chroma & bdl & bdc & -> & Hr & Hok).
      unfold entry_okb. cbn [se_dref se_a se_b se_c se_cfg se_name nth] in *. rewrite Hr. cbn [hr_level hr_arrays]. rewrite Hok, A3.
      destruct Hn as [-> | ->];
        repeat (apply andb_true_iff; split); try reflexivity; apply N.ltb_lt; first [assumption | apply u16_lt | lia].
    - apply N.ltb_lt in Hd. apply set_aac_ok in H. destruct H as (asc & Ha & He0 & _). rewrite (Hsame _ He0).
      apply entry_simple; try apply u16_lt; try (destruct (o =? 29); lia).
      split; [reflexivity|]. apply asc_len in Ha; [lia|lia|]. destruct (_ || _); lia.
    - destruct d. apply set_ac3_ok in H. destruct H as [He0 _]. rewrite (Hsame _ He0).
      apply entry_simple; try apply u16_lt; try reflexivity; lia.
    - apply set_ec3_entry in H. destruct H as (n & r & ->). rewrite (Hsame _ eq_refl).
      apply entry_simple; try apply u16_lt; try reflexivity; lia.
    - rewrite set_wvtt_ok in H. injection H as <-. rewrite (Hsame _ eq_refl). apply entry_simple; try exact I; lia.
    - rewrite set_stpp_ok in H. injection H as <-. rewrite (Hsame _ eq_refl). apply entry_simple; try exact I; lia.
  Qed.

  Lemma set_desc_inv k t d : trak_inv (S k) t -> desc_args_okb d = true -> trak_inv k (snd (set_desc avc_parse hevc_parse t d)).
  Proof using Havc Hhevc.
    intros Ht Hd. pose proof (new_entry_okb t d) as Hnew.
    destruct (set_desc_shape avc_parse hevc_parse t d) as (t1 & oe & Ht1 & Ht' & Hoc & _).
    assert (H1 : trak_inv (S k) t1 /\ sd_entries t1 = sd_entries t).
    { destruct Ht1 as [-> | (w & h & ->)]; (split; [|reflexivity]); [exact Ht|apply dims_inv; [apply u32_lt..|exact Ht]]. }
    destruct H1 as [H1 E1].
    destruct (set_desc avc_parse hevc_parse t d) as [oc t']. cbn [fst snd] in *. subst t'.
    destruct oe as [e|]; [|apply trak_inv_weaken; exact H1].
    apply stsd_add_inv; [exact H1|]. rewrite (proj2 Hoc) in Hnew by discriminate.
    apply (Hnew _ e Hd eq_refl). cbn [stsd_add sd_entries]. rewrite E1. reflexivity.
  Qed.
End Args.

Lemma set_language_lt lang : forall i l r, l < 65536 -> set_language_from i lang l = Some r -> r < 65536.
Proof.
  induction lang as [|c lang IH]; intros i l r Hl H; cbn [set_language_from] in H.
  - injection H as <-. exact Hl.
  - destruct (Nat.leb i 2); [|discriminate]. eapply IH; [|exact H]. apply u16_lt.
Qed.

Lemma hdlr_type_len m ht hn : create_hdlr m = Some (ht, hn) -> lenN ht = 4.
Proof.
  unfold create_hdlr.
  repeat match goal with |- context [if ?c then _ else _] => destruct c eqn:? end; intros H; try discriminate;
    injection H as <- <-; try reflexivity.
  unfold lenN. match goal with h : Nat.eqb (length m) 4 = true |- _ => apply Nat.eqb_eq in h; rewrite h end. reflexivity.
Qed.

Lemma new_trak_ok id ts m lang t :
  create_empty_trak id ts m lang = Some t -> id < 4294967296 -> ts < 4294967296 -> lang_okb lang = true ->
  trak_okb t = true /\ sd_entries t = [].
Proof.
  intros H Hid Hts Hl. destruct (create_empty_trak_some _ _ _ _ _ H) as (ht & hn & l & Eh & El & ->).
  split; [|reflexivity]. unfold trak_okb. cbn [tk_id tk_volume tk_width tk_height md_timescale md_lang hd_type el_lang sd_entries].
  assert (Hlt : l < 65536).
  { destruct (Nat.eqb (length lang) 3); exact (set_language_lt _ 0 0 l ltac:(lia) El). }
  rewrite (lt_b _ _ Hid), (lt_b _ _ Hts), (lt_b _ _ Hlt), (hdlr_type_len _ _ _ Eh).
  unfold lang_okb in Hl. destruct (Nat.eqb (length lang) 3); cbn [orb] in Hl; rewrite ?Hl;
    destruct (str_eqb m (BS "audio")); reflexivity.
Qed.

Definition sinv (k : nat) (s : st) : Prop :=
  next_id s < 4294967296 /\ Forall (fun id => id < 4294967296) (trexs s) /\ Forall (trak_inv k) (traks s).

Lemma sinv_weaken k s : sinv (S k) s -> sinv k s.
Proof.
  intros (H1 & H2 & H3). repeat split; try assumption. eapply Forall_impl; [|exact H3]. intros t. apply trak_inv_weaken.
Qed.

Lemma sinv_args s : sinv 0 s -> args_okb s = true.
Proof.
  intros (H1 & H2 & H3). unfold args_okb. rewrite (lt_b _ _ H1). cbn [andb]. apply andb_true_iff. split.
  - apply forallb_forall. intros id Hin. apply lt_b. exact (proj1 (Forall_forall _ _) H2 id Hin).
  - apply forallb_forall. intros t Hin. exact (proj1 (proj1 (Forall_forall _ _) H3 t Hin)).
Qed.

Section Run.
  Variable avc_parse : str -> option avc_info.
  Variable hevc_parse : str -> option (N * N * list N).
  Hypothesis Havc : avc_parser_ok avc_parse.
  Hypothesis Hhevc : hevc_parser_ok hevc_parse.

  Lemma step_sinv k s o : N.of_nat (S k) < 4294967296 -> sinv (S k) s -> op_args_okb o = true ->
    sinv k (snd (step avc_parse hevc_parse s o)).
  Proof using Havc Hhevc.
    intros Hk Hs Ho. destruct o as [ts m lang|i d]; cbn [step op_args_okb] in *.
    - apply andb_true_iff in Ho. destruct Ho as [Hts Hl]. apply N.ltb_lt in Hts.
      pose proof (sinv_weaken k s Hs) as (_ & H2 & H3). unfold add_empty_track.
      destruct (create_empty_trak (u32 (N.of_nat (length (traks s)) + 1)) ts m lang) as [t|] eqn:Et; cbn [snd].
      + destruct (new_trak_ok _ _ _ _ _ Et (u32_lt _) Hts Hl) as [Tok Tent].
        destruct (moov_add_trak_rest (mkSt (children s) (traks s) (trexs s) (u32 (u32 (N.of_nat (length (traks s)) + 1) + 1))) t)
          as (E1 & E2 & E3).
        unfold sinv. cbn [next_id trexs traks] in *. rewrite E1, E2, E3.
        split; [apply u32_lt|]. split; apply Forall_app.
        * split; [exact H2|]. constructor; [apply u32_lt|constructor].
        * split; [exact H3|]. constructor; [|constructor]. split; [exact Tok|]. rewrite Tent. cbn [length]. lia.
      + repeat split; [apply u32_lt|exact H2|exact H3].
    - destruct (nth_error (traks s) i) as [t|] eqn:Et; cbn [snd]; [|apply sinv_weaken; exact Hs].
      destruct Hs as (H1 & H2 & H3).
      assert (Ht : trak_inv (S k) t) by (exact (proj1 (Forall_forall _ _) H3 t (nth_error_In _ _ Et))).
      pose proof (set_desc_inv avc_parse hevc_parse Havc Hhevc k t d Ht Ho) as Ht'.
      destruct (set_desc avc_parse hevc_parse t d) as [oc t']. cbn [snd] in *.
      repeat split; cbn [next_id trexs traks]; try assumption.
      apply Forall_replace_nth; [|exact Ht']. eapply Forall_impl; [|exact H3]. intros x. apply trak_inv_weaken.
  Qed.
End Run.
