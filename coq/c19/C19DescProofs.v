(* C19DescProofs.v — what a successful Set...Descriptor call leaves in the track: exactly one new sample
   entry, whose name, data reference index, dimensions / audio fields and configuration are the supplied ones. *)
From Coq Require Import String Ascii.
From V.lib Require Import Base.
From V.c13 Require Import C13Model.
From V.c19 Require Import C19Model C19Spec C19InvProofs.

Definition complete_bit (name : str) : N := if str_eqb name (BS "hvc1") then 128 else 0.

Definition spec_hevc_arrays (name : str) (vpss spss ppss seis : list str) (incl : bool) : list (N * list str) :=
  (if incl then [(complete_bit name + 32, vpss); (complete_bit name + 33, spss); (complete_bit name + 34, ppss)] else [])
  ++ (match seis with [] => [] | _ => [(complete_bit name + 39, seis)] end).

(* AC-3 acmod -> number of full-bandwidth channels (ETSI TS 102 366 table 4.3) *)
Definition spec_acmod_nchan (acmod : N) : N := nth (N.to_nat acmod) [2; 1; 2; 3; 3; 4; 4; 5] 0.
Definition spec_ac3_rate (fscod : N) : N := nth (N.to_nat fscod) [48000; 44100; 32000] 0.
(* E-AC-3 chan_loc bits (table F.6.1): Lc/Rc Lrs/Rrs Cs Ts Lsd/Rsd Lw/Rw Lvh/Rvh Cvh LFE2 *)
Definition spec_chanloc_weights : list N := [2; 2; 1; 1; 2; 2; 2; 1; 1].
Fixpoint spec_chanloc_count (i : N) (ws : list N) (chanloc : N) : N :=
  match ws with
  | [] => 0
  | w :: r => (if N.testbit chanloc i then w else 0) + spec_chanloc_count (i + 1) r chanloc
  end.

(* AudioSpecificConfig read back: bits MSB first *)
Definition bits_of_byte (b : N) : list bool := map (fun i => N.testbit b (N.of_nat (7 - i))) (seq 0 8).
Definition bits_of (l : str) : list bool := flat_map bits_of_byte l.
Fixpoint take_bits (n : nat) (bs : list bool) (acc : N) : N * list bool :=
  match n, bs with
  | O, _ => (acc, bs)
  | S n', b :: r => take_bits n' r (2 * acc + (if b then 1 else 0))
  | S _, [] => (acc, [])
  end.
Definition freq_table : list N := [96000; 88200; 64000; 48000; 44100; 32000; 24000; 22050; 16000; 12000; 11025; 8000; 7350].
Definition read_freq (bs : list bool) : N * list bool :=
  let '(i, r) := take_bits 4 bs 0 in
  if i =? 15 then take_bits 24 r 0 else (nth (N.to_nat i) freq_table 0, r).
(* returns (object type, frequency, channel configuration, extension frequency (0 when absent), base object type) *)
Definition asc_read (l : str) : N * N * N * N * N :=
  let '(ot, r1) := take_bits 5 (bits_of l) 0 in
  let '(f, r2) := read_freq r1 in
  let '(ch, r3) := take_bits 4 r2 0 in
  if (ot =? 5) || (ot =? 29) then
    let '(ef, r4) := read_freq r3 in
    let '(bt, _) := take_bits 5 r4 0 in (ot, f, ch, ef, bt)
  else (ot, f, ch, 0, ot).

Definition aac_domain : list (N * N) :=
  flat_map (fun o => map (fun f => (o, f)) (freq_table ++ [44000; 8001; 65535; 1; 16777215])) [2; 5; 29].

Definition aac_case_ok (of : N * N) : bool :=
  let '(o, f) := of in
  let chan := if o =? 29 then 1 else 2 in
  let ext := if (o =? 5) || (o =? 29) then 2 * f else 0 in
  match asc_encode o f chan ext with
  | None => false
  | Some asc =>
      let '(ot, f', ch, ef, bt) := asc_read asc in
      (ot =? o) && (f' =? f) && (ch =? chan) && (ef =? ext mod 16777216) && (bt =? 2)
  end.

Lemma aac_domain_ok : forallb aac_case_ok aac_domain = true.
Proof. vm_compute. reflexivity. Qed.

Lemma acmod_channels_count acmod l : acmod_channels acmod = Some l -> N.of_nat (length l) = spec_acmod_nchan acmod /\ acmod < 8.
Proof.
  unfold acmod_channels, spec_acmod_nchan.
  destruct (N.to_nat acmod) as [|[|[|[|[|[|[|[|n]]]]]]]] eqn:E; intros [= <-]; cbn [length nth N.of_nat]; split; try reflexivity; lia.
Qed.

Lemma ac3_rate_spec f r : ac3_rate f = Some r -> r = spec_ac3_rate f /\ f < 3.
Proof.
  unfold ac3_rate, spec_ac3_rate. destruct (N.to_nat f) as [|[|[|n]]] eqn:E; intros [= <-]; cbn [nth]; split; try reflexivity; lia.
Qed.

Lemma ec3_loc_channels_dom :
  forallb (fun i => ec3_loc_channels (N.of_nat i) =? spec_chanloc_count 0 spec_chanloc_weights (N.of_nat i)) (seq 0 512) = true.
Proof. vm_compute. reflexivity. Qed.

(* chan_loc is a 9-bit field *)
Lemma ec3_loc_channels_spec chanloc :
  chanloc < 512 -> ec3_loc_channels chanloc = spec_chanloc_count 0 spec_chanloc_weights chanloc.
Proof.
  intros H. pose proof ec3_loc_channels_dom as D. rewrite forallb_forall in D.
  specialize (D (N.to_nat chanloc)). rewrite N2Nat.id in D. apply N.eqb_eq. apply D. apply in_seq. lia.
Qed.

Section P.
  Variable avc_parse : str -> option avc_info.
  Variable hevc_parse : str -> option (N * N * list N).

  Lemma set_avc_ok t name spss ppss incl t' :
    set_avc avc_parse t name spss ppss incl = (OOk, t') ->
    exists sps0 rest w h p c l cf bl bc,
      spss = sps0 :: rest /\ avc_parse sps0 = Some (w, h, (p, c, l, (cf, bl, bc)))
      /\ cf <= 3 /\ bl <= 7 /\ bc <= 7
      /\ (name = BS "avc1" \/ name = BS "avc3")
      /\ sd_entries t' = sd_entries t ++
           [mkSE name 1 (w mod 65536) (h mod 65536) 0
                 (CfgAvcC (mkAvcC p c l (if incl then spss else []) (if incl then ppss else []) cf bl bc))]
      /\ tk_width t' = (w * 65536) mod 4294967296 /\ tk_height t' = (h * 65536) mod 4294967296
      /\ core t' = core t.
  Proof using avc_parse.
    clear hevc_parse. unfold set_avc, create_avcc. intros H.
    destruct (negb (is_one_of name _)) eqn:Hname; [discriminate|].
    destruct (str_eqb name _ && negb incl) eqn:H1; [discriminate|].
    destruct spss as [|sps0 rest]; [discriminate|].
    destruct (avc_parse sps0) as [[[w h] [[[p c] l] [[cf bl] bc]]]|] eqn:Hp; [|discriminate].
    destruct ((3 <? cf) || (7 <? bl) || (7 <? bc)) eqn:Hfit; [discriminate|].
    inversion H; subst; clear H.
    exists sps0, rest, w, h, p, c, l, cf, bl, bc.
    split; [reflexivity|]. split; [exact Hp|].
    split; [lia|]. split; [lia|]. split; [lia|]. split.
    { apply negb_false_iff in Hname. unfold is_one_of in Hname. cbn [existsb] in Hname.
      rewrite orb_false_r in Hname. apply orb_prop in Hname. destruct Hname as [E|E]; apply str_eqb_eq in E; auto. }
    split; [destruct incl; reflexivity|]. repeat split; reflexivity.
  Qed.

  Lemma set_hevc_ok t name vpss spss ppss seis incl t' :
    set_hevc hevc_parse t name vpss spss ppss seis incl = (OOk, t') ->
    exists sps0 rest w h cfg,
      spss = sps0 :: rest /\ hevc_parse sps0 = Some (w, h, cfg)
      /\ (name = BS "hvc1" \/ name = BS "hev1")
      /\ sd_entries t' = sd_entries t ++
           [mkSE name 1 (w mod 65536) (h mod 65536) 0
                 (CfgHvcC (mkHvcC cfg (spec_hevc_arrays name vpss spss ppss seis incl)))]
      /\ tk_width t' = (w * 65536) mod 4294967296 /\ tk_height t' = (h * 65536) mod 4294967296
      /\ core t' = core t.
  Proof.
    unfold set_hevc, create_hvcc. intros H.
    destruct (negb (is_one_of name _)) eqn:Hname; [discriminate|].
    destruct spss as [|sps0 rest]; [discriminate|].
    destruct (hevc_parse sps0) as [[[w h] cfg]|] eqn:Hp; [|discriminate].
    destruct (str_eqb name _ && negb incl) eqn:H1; [discriminate|].
    exists sps0, rest, w, h, cfg.
    split; [reflexivity|]. split; [exact Hp|]. split.
    { apply negb_false_iff in Hname. unfold is_one_of in Hname. cbn [existsb] in Hname.
      rewrite orb_false_r in Hname. apply orb_prop in Hname. destruct Hname as [E|E]; apply str_eqb_eq in E; auto. }
    unfold spec_hevc_arrays, complete_bit, nalu_array in *.
    destruct seis; destruct incl; inversion H; subst; clear H; cbn [hc_cfg hc_arrays app];
      (split; [try rewrite app_nil_r; reflexivity|repeat split; reflexivity]).
  Qed.

  Lemma set_aac_ok t o f t' :
    set_aac t o f = (OOk, t') ->
    let chan := if o =? 29 then 1 else 2 in
    let ext := if (o =? 5) || (o =? 29) then 2 * f else 0 in
    exists asc, asc_encode o f chan ext = Some asc
      /\ sd_entries t' = sd_entries t ++ [mkSE (BS "mp4a") 1 chan 16 (f mod 65536) (CfgEsds asc)]
      /\ core t' = core t.
  Proof.
    unfold set_aac, HEAACv1, HEAACv2. cbv zeta. intros H.
    destruct (asc_encode o f _ _) as [asc|]; [|discriminate].
    inversion H; subst. exists asc. repeat split; reflexivity.
  Qed.

  Lemma set_ac3_ok t fscod bsid bsmod acmod lfeon brc t' :
    set_ac3 t (mkDac3 fscod bsid bsmod acmod lfeon brc) = (OOk, t') ->
    sd_entries t' = sd_entries t ++
      [mkSE (BS "ac-3") 1 ((spec_acmod_nchan acmod + (if lfeon =? 1 then 1 else 0)) mod 65536) 16
            (spec_ac3_rate fscod mod 65536) (CfgDac3 (mkDac3 fscod bsid bsmod acmod lfeon brc))]
    /\ core t' = core t.
  Proof.
    unfold set_ac3. intros H.
    destruct (acmod_channels acmod) as [l|] eqn:Ha; [|discriminate].
    destruct (ac3_rate fscod) as [r|] eqn:Hr; [|discriminate].
    apply acmod_channels_count in Ha. apply ac3_rate_spec in Hr. destruct Ha as [Ha _]. destruct Hr as [Hr _].
    inversion H; subst. rewrite Ha. split; reflexivity.
  Qed.

  Lemma set_ec3_ok t dr fscod bsid asvc bsmod acmod lfeon nds cl subs t' :
    cl < 512 ->
    set_ec3 t (mkDec3 dr (mkEc3Sub fscod bsid asvc bsmod acmod lfeon nds cl :: subs)) = (OOk, t') ->
    sd_entries t' = sd_entries t ++
      [mkSE (BS "ec-3") 1
            ((spec_acmod_nchan acmod + (if lfeon =? 1 then 1 else 0)
              + (if 0 <? nds then spec_chanloc_count 0 spec_chanloc_weights cl else 0)) mod 65536) 16
            (spec_ac3_rate fscod mod 65536)
            (CfgDec3 (mkDec3 dr (mkEc3Sub fscod bsid asvc bsmod acmod lfeon nds cl :: subs)))]
    /\ core t' = core t.
  Proof.
    unfold set_ec3. intros Hcl H.
    destruct (acmod_channels acmod) as [l|] eqn:Ha; [|discriminate].
    destruct (ac3_rate fscod) as [r|] eqn:Hr; [|discriminate].
    apply acmod_channels_count in Ha. apply ac3_rate_spec in Hr. destruct Ha as [Ha _]. destruct Hr as [Hr _].
    inversion H; subst. rewrite Ha, (ec3_loc_channels_spec cl Hcl). split; reflexivity.
  Qed.

  (* the entry of a successful SetEC3Descriptor without the channel count spelled out (any chan_loc) *)
  Lemma set_ec3_entry t d t' :
    set_ec3 t d = (OOk, t') -> exists n r, t' = stsd_add t (mkSE (BS "ec-3") 1 (u16 n) 16 (u16 r) (CfgDec3 d)).
  Proof.
    destruct d as [dr subs]. unfold set_ec3. destruct subs as [|[fscod bsid asvc bsmod acmod lfeon nds cl] subs]; [discriminate|].
    destruct (acmod_channels acmod); [|discriminate]. destruct (ac3_rate fscod); [|discriminate].
    intros [= <-]. eexists _, _. reflexivity.
  Qed.

  Lemma set_wvtt_ok t config :
    set_wvtt t config =
    (OOk, stsd_add t (mkSE (BS "wvtt") 1 0 0 0 (CfgVttC (match config with [] => BS "WEBVTT" | _ => config end)))).
  Proof. reflexivity. Qed.

  Lemma set_stpp_ok t ns schema mime :
    set_stpp t ns schema mime =
    (OOk, stsd_add t (mkSE (BS "stpp") 1 0 0 0
                           (CfgStpp (match ns with [] => BS "http://www.w3.org/ns/ttml" | _ => ns end) schema mime))).
  Proof. reflexivity. Qed.

  Lemma set_desc_entries t d :
    let '(oc, t') := set_desc avc_parse hevc_parse t d in
    match oc with
    | OOk => exists e, sd_entries t' = sd_entries t ++ [e] /\ se_dref e = 1
    | _ => sd_entries t' = sd_entries t
    end.
  Proof.
    destruct (set_desc_shape avc_parse hevc_parse t d) as (t1 & oe & Ht1 & Ht' & Hoc & Hdr).
    assert (E1 : sd_entries t1 = sd_entries t) by (destruct Ht1 as [-> | (w & h & ->)]; reflexivity).
    destruct (set_desc avc_parse hevc_parse t d) as [oc t']. cbn [fst snd] in *. subst t'. destruct oe as [e|].
    - rewrite (proj2 Hoc) by discriminate. exists e. cbn [stsd_add sd_entries]. rewrite E1. split; [reflexivity|exact (Hdr e eq_refl)].
    - destruct oc; [destruct (proj1 Hoc eq_refl); reflexivity|exact E1..].
  Qed.

  Definition entries_dref_ok (s : st) : Prop :=
    Forall (fun t => Forall (fun e => se_dref e = 1) (sd_entries t)) (traks s).

  (* a property of every sample entry of every track, after any history: it has to hold of the entry a successful
     call adds (set_desc_entries: nothing else changes the entries; a new track has none) *)
  Lemma entries_run (ok : op -> Prop) (P : sentry -> Prop) :
    (forall k t d t' e, ok (SetDesc k d) -> set_desc avc_parse hevc_parse t d = (OOk, t') ->
       sd_entries t' = sd_entries t ++ [e] -> P e) ->
    forall ops, Forall ok ops ->
      Forall (fun t => Forall P (sd_entries t)) (traks (snd (run avc_parse hevc_parse ops))).
  Proof.
    intros Hnew ops Hok.
    apply (run_from_ind avc_parse hevc_parse ok (fun _ s => Forall (fun t => Forall P (sd_entries t)) (traks s)));
      [auto| |exact Hok|constructor].
    intros _ s o Ho H. destruct o as [ts m lang|k d]; cbn [step].
    - unfold add_empty_track. destruct (create_empty_trak _ ts m lang) as [t|] eqn:Hce; cbn [snd traks]; [|exact H].
      rewrite (proj1 (moov_add_trak_rest _ t)). apply Forall_app. split; [exact H|]. constructor; [|constructor].
      destruct (create_empty_trak_some _ _ _ _ _ Hce) as (ht & hn & l & _ & _ & ->). constructor.
    - destruct (nth_error (traks s) k) as [t|] eqn:Hn; [|exact H].
      pose proof (set_desc_entries t d) as He.
      destruct (set_desc avc_parse hevc_parse t d) as [oc t'] eqn:Hd. cbn [snd traks].
      apply Forall_replace_nth; [exact H|].
      pose proof (proj1 (Forall_forall _ _) H t (nth_error_In _ _ Hn)) as Ht.
      destruct oc; [|rewrite He; exact Ht..].
      destruct He as [e [He _]]. rewrite He. apply Forall_app. split; [exact Ht|]. constructor; [|constructor].
      exact (Hnew k t d t' e Ho Hd He).
  Qed.

End P.
