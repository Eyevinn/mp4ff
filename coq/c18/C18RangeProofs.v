(* C18RangeProofs.v — the well-formedness hypotheses of the round-trip theorems are invariants of the
   decoders: every configuration DecodeAudioSpecificConfig can return, on ANY input, is canonical (so the
   round-trip theorem applies to it: it re-encodes and decodes to itself), and canonical is exactly the range
   of the decoder.  Every header DecodeADTSHeader can return that is MPEG-4 / CRC-less with a frame length
   of at least the header length is canonical; the last guard is sharp (a frame length below 7 wraps the
   uint16 payload length). *)
From V.lib Require Import Base.
From V.c18 Require Import C18Model C18BitsProofs C18AscProofs C18AdtsProofs.

(* Read(n) returns an n-bit value, whatever the reader state *)
Lemma take_bits_bound : forall w acc l v t,
  take_bits w acc l = Some (v, t) -> v < (acc + 1) * 2 ^ N.of_nat w.
Proof.
  induction w as [|w IH]; intros acc l v t H.
  - cbn [take_bits] in H. inversion H; subst. change (N.of_nat 0) with 0. rewrite N.pow_0_r. lia.
  - cbn [take_bits] in H. destruct l as [|b l]; [discriminate|].
    apply IH in H. rewrite Nnat.Nat2N.inj_succ, N.pow_succ_r'.
    unfold bit_step in H. destruct b; cbn [N.b2n] in H; nia.
Qed.

Lemma rd_bound n s : fst (rd n s) < 2 ^ N.of_nat n.
Proof.
  unfold rd. destruct (rerr s).
  - cbn [fst]. apply N.neq_0_lt_0. apply N.pow_nonzero. discriminate.
  - destruct (take_bits n 0 (rbits s)) as [[v t]|] eqn:E; cbn [fst].
    + apply take_bits_bound in E. lia.
    + apply N.neq_0_lt_0. apply N.pow_nonzero. discriminate.
Qed.

Lemma rd_bound_eq n s v s' : rd n s = (v, s') -> v < 2 ^ N.of_nat n.
Proof. intros H. pose proof (rd_bound n s) as B. rewrite H in B. exact B. Qed.

(* AudioSpecificConfig *)
Lemma get_frequency_ok s f s' : get_frequency s = (Some f, s') -> freq_ok f = true.
Proof.
  unfold get_frequency_g. destruct (rd 4 s) as [idx s1].
  destruct (idx =? 15).
  - destruct (rd 24 s1) as [v s2] eqn:E. destruct (rerr s2); [discriminate|].
    intros [= <- _]. apply rd_bound_eq in E.
    change (2 ^ N.of_nat 24) with 16777216 in E. unfold freq_ok. lia.
  - destruct (rerr s1); [discriminate|]. intros [= H _]. now apply freq_of_index_ok in H.
Qed.

(* the decoder goes on only for the three supported object types, with the flags they imply *)
Lemma decoder_flags_inv aot sbr ps :
  (if aot =? AAClc then Some (false, false) else if aot =? HEAACv1 then Some (true, false)
   else if aot =? HEAACv2 then Some (true, true) else None) = Some (sbr, ps) ->
  asc_ot_ok aot /\ sbr = negb (aot =? AAClc) /\ ps = (aot =? HEAACv2).
Proof.
  unfold asc_ot_ok.
  destruct (N.eqb_spec aot AAClc) as [-> | _]; [intros [= <- <-]; repeat split; tauto|].
  destruct (N.eqb_spec aot HEAACv1) as [-> | _]; [intros [= <- <-]; repeat split; tauto|].
  destruct (N.eqb_spec aot HEAACv2) as [-> | _]; [intros [= <- <-]; repeat split; tauto|discriminate].
Qed.

(* the decoder's results are inside the domain of the round-trip theorem, for every input *)
Lemma decode_asc_canonical data a : decode_asc data = Ok a -> canonical a = true.
Proof.
  unfold decode_asc, decode_asc_g.
  destruct (rd 5 (rinit data)) as [aot s1].
  destruct (if aot =? AAClc then _ else _) as [[sbr ps]|] eqn:Efl; [|discriminate].
  apply decoder_flags_inv in Efl. destruct Efl as (Hot & -> & ->).
  destruct (asc_ot_flags aot Hot) as (_ & Hhe & _).
  destruct (get_frequency s1) as [[f|] s2] eqn:EF; [|discriminate]. apply get_frequency_ok in EF.
  destruct (rd 4 s2) as [ch s3] eqn:EC. apply rd_bound_eq in EC. change (2 ^ N.of_nat 4) with 16 in EC.
  rewrite Hhe. destruct (aot =? AAClc) eqn:Elc; cbn [negb].
  - destruct (rd 3 s3). intros [= <-]. apply canonical_iff.
    cbn [a_ot a_chan a_freq a_ext a_sbr a_ps]. rewrite Elc. repeat split; assumption.
  - destruct (get_frequency s3) as [[e|] s4] eqn:EE; [|discriminate]. apply get_frequency_ok in EE.
    destruct (rd 5 s4) as [aot2 s5]. destruct (negb (aot2 =? AAClc)); [discriminate|].
    destruct (rd 3 s5). intros [= <-]. apply canonical_iff.
    cbn [a_ot a_chan a_freq a_ext a_sbr a_ps]. rewrite Elc. repeat split; assumption.
Qed.

(* decode ; encode ; decode = decode: whatever bytes the decoder accepted, the configuration it returned
   is one Encode writes and the decoder reads back as itself *)
Lemma decode_asc_reencode data a :
  decode_asc data = Ok a -> rbind (encode_asc a) decode_asc = Ok a.
Proof. intros H. apply asc_roundtrip. now apply decode_asc_canonical in H. Qed.

(* canonical is not a modelling choice: it is exactly the set of configurations the decoder can return *)
Lemma canonical_is_decoder_range a :
  canonical a = true <-> exists data, bytes_ok data = true /\ decode_asc data = Ok a.
Proof.
  split.
  - intros Hc. eexists. split; [apply pack_bytes_ok|now apply decode_asc_encoded].
  - intros [data [_ H]]. now apply decode_asc_canonical in H.
Qed.

(* ADTS header *)
Lemma decode_adts_canonical data h off :
  decode_adts data = Ok (h, off) ->
  h_id h = 0 -> h_hlen h = 7 -> h_plen h <= 8184 -> adts_canonical h = true.
Proof.
  unfold decode_adts, decode_adts_g.
  destruct (sync_loop ts_packet_size (rinit data) 0 0%Z) as [[[found sync2] offset] s].
  destruct (rerr s); [discriminate|]. destruct (negb found); [discriminate|].
  unfold decode_after_sync_g. cbv zeta.
  destruct (negb (N.land (N.shiftr sync2 1) 3 =? 0)); [discriminate|].
  destruct (rd 2 s) as [profile s1] eqn:R1.
  destruct (rd 4 s1) as [sfi s2] eqn:R2.
  destruct (rd 1 s2) as [x3 s3].
  destruct (rd 3 s3) as [chan s4] eqn:R4.
  destruct (rd 4 s4) as [x5 s5].
  destruct (rd 13 s5) as [flen s6].
  destruct (rd 11 s6) as [bf s7] eqn:R7.
  destruct (rd 2 s7) as [nrb s8].
  destruct (negb (nrb =? 0)); [discriminate|].
  match goal with |- (if rerr ?S then _ else _) = _ -> _ => destruct (rerr S); [discriminate|] end.
  intros [= <- _]. cbn [h_id h_ot h_sfi h_chan h_hlen h_plen h_bf]. intros Hid Hhl Hpl.
  apply rd_bound_eq in R1, R2, R4, R7.
  change (2 ^ N.of_nat 2) with 4 in R1. change (2 ^ N.of_nat 4) with 16 in R2.
  change (2 ^ N.of_nat 3) with 8 in R4. change (2 ^ N.of_nat 11) with 2048 in R7.
  apply adts_canonical_iff. cbn [h_id h_ot h_sfi h_chan h_hlen h_plen h_bf].
  repeat split; try assumption; clear Hid Hhl Hpl; unfold u8, u16; lia.
Qed.

(* any such header the decoder returned, from whatever bytes and at whatever offset, re-encodes to 7 bytes
   the decoder reads back as the same header at offset 0 *)
Lemma decode_adts_reencode data h off rest :
  decode_adts data = Ok (h, off) ->
  h_id h = 0 -> h_hlen h = 7 -> h_plen h <= 8184 ->
  decode_adts (encode_adts h ++ rest) = Ok (h, 0%Z).
Proof. intros H Hi Hh Hp. apply adts_roundtrip. exact (decode_adts_canonical data h off H Hi Hh Hp). Qed.

(* the payload-length guard is needed: an MPEG-4, CRC-less header announcing a frame length of 0 (< 7 header
   bytes) is accepted and reported with PayloadLength 65529 = uint16(0 - 7) (malformed input: outside the
   domain the property quantifies over) *)
Lemma decode_adts_short_frame_wraps :
  exists data h off,
    bytes_ok data = true /\ decode_adts data = Ok (h, off) /\ h_id h = 0 /\ h_hlen h = 7 /\ h_plen h = 65529.
Proof.
  exists [255; 241; 76; 128; 0; 31; 252]. eexists. eexists.
  split; [reflexivity|]. split; [vm_compute; reflexivity|]. repeat split.
Qed.
