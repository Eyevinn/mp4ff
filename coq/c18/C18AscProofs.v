(* C18AscProofs.v — AudioSpecificConfig: the two frequency tables are mutually inverse, and
   DecodeAudioSpecificConfig inverts Encode on every canonical configuration, consuming exactly the
   bits Encode wrote (one proof, for the state-returning decoder of C18HistModel; the plain decoder
   is its first component). *)
From V.lib Require Import Base.
From V.c18 Require Import C18Model C18BitsProofs C18HistModel.

Lemma index_of_freq_sound f i :
  index_of_freq f = Some i -> freq_of_index i = Some f /\ i < 13.
Proof.
  unfold index_of_freq, reverse_frequencies. cbn [lookup_freq].
  repeat (match goal with |- context [(?k =? f)%Z] => destruct (Z.eqb_spec k f) as [<- | _] end;
          [intros [= <-]; split; reflexivity|]).
  discriminate.
Qed.

Lemma freq_of_index_sound i f :
  freq_of_index i = Some f -> index_of_freq f = Some i /\ i < 13.
Proof.
  unfold freq_of_index, frequency_table. cbn [lookup_idx].
  repeat (match goal with |- context [?k =? i] => destruct (N.eqb_spec k i) as [<- | _] end;
          [intros [= <-]; split; reflexivity|]).
  discriminate.
Qed.

Lemma tables_inverse i f : freq_of_index i = Some f <-> index_of_freq f = Some i.
Proof.
  split; intros H.
  - now apply freq_of_index_sound.
  - now apply index_of_freq_sound.
Qed.

Definition table_freqs : list Z := map snd frequency_table.

Lemma table_freqs_ok f : In f table_freqs -> freq_ok f = true.
Proof. revert f. apply forallb_forall. reflexivity. Qed.

Lemma freq_of_index_in i f : freq_of_index i = Some f -> In f table_freqs.
Proof.
  unfold freq_of_index, table_freqs. induction frequency_table as [|[k v] t IH]; [discriminate|].
  cbn [lookup_idx map snd In]. destruct (k =? i); [intros [= <-]; now left|right; now apply IH].
Qed.

Lemma freq_of_index_ok i f : freq_of_index i = Some f -> freq_ok f = true.
Proof. intros H. apply table_freqs_ok. now apply freq_of_index_in in H. Qed.

(* getFrequency inverts the frequency field *)
Lemma uint_of_int_small f : freq_ok f = true -> uint_of_int f = Z.to_N f /\ Z.to_N f < 16777216.
Proof.
  unfold freq_ok, uint_of_int. intros H.
  assert (0 <= f < 16777216)%Z as Hr by lia.
  rewrite Z.mod_small by lia. lia.
Qed.

Lemma get_frequency_field f rest :
  freq_ok f = true ->
  get_frequency (mkR (freq_field f ++ rest) false) = (Some f, mkR rest false).
Proof.
  intros Hf. unfold freq_field, get_frequency_g.
  destruct (index_of_freq f) as [i|] eqn:E.
  - apply index_of_freq_sound in E. destruct E as [E Hi].
    rewrite rd_to_bits_small by lia. cbv beta iota.
    replace (i =? 15) with false by (symmetry; apply N.eqb_neq; lia).
    cbn [rerr]. now rewrite E.
  - rewrite <- app_assoc.
    rewrite rd_to_bits_small by lia. cbv beta iota.
    change (15 =? 15) with true. cbv beta iota.
    destruct (uint_of_int_small f Hf) as [-> Hlt].
    rewrite rd_to_bits_small by lia. cbv beta iota. cbn [rerr].
    rewrite Z2N.id; [reflexivity|]. unfold freq_ok in Hf. lia.
Qed.

(* the supported domain *)
Definition asc_ot_ok (ot : N) : Prop := ot = AAClc \/ ot = HEAACv1 \/ ot = HEAACv2.

Lemma eqb_true_eq (a b : bool) : Bool.eqb a b = true -> a = b.
Proof. apply Bool.eqb_prop. Qed.

Lemma canonical_iff a :
  canonical a = true <->
  asc_ot_ok (a_ot a) /\ a_chan a < 16 /\ freq_ok (a_freq a) = true
  /\ (if a_ot a =? AAClc then a_ext a = 0%Z else freq_ok (a_ext a) = true)
  /\ a_sbr a = negb (a_ot a =? AAClc) /\ a_ps a = (a_ot a =? HEAACv2).
Proof.
  unfold canonical, asc_ot_ok.
  rewrite !andb_true_iff, !orb_true_iff, !N.eqb_eq, N.ltb_lt, !Bool.eqb_true_iff.
  destruct (a_ot a =? AAClc); rewrite ?Z.eqb_eq; tauto.
Qed.

(* what the two tests on the object type (encoder and decoder) come to on the three supported types *)
Lemma asc_ot_flags ot :
  asc_ot_ok ot ->
  ot < 32 /\ (ot =? HEAACv1) || (ot =? HEAACv2) = negb (ot =? AAClc)
  /\ (if ot =? AAClc then Some (false, false) else if ot =? HEAACv1 then Some (true, false)
      else if ot =? HEAACv2 then Some (true, true) else None) = Some (negb (ot =? AAClc), ot =? HEAACv2).
Proof. intros [-> | [-> | ->]]; repeat split. Qed.

Lemma canonical_encode a : canonical a = true -> encode_asc a = Ok (pack (flush (asc_bits a))).
Proof.
  intros H. apply canonical_iff in H. destruct H as [H _]. unfold encode_asc.
  destruct H as [-> | [-> | ->]]; reflexivity.
Qed.

(* encoding never fails on the domain, and only there *)
Lemma encode_asc_ok a :
  (exists bs, encode_asc a = Ok bs) <->
  ((a_ot a =? AAClc) || (a_ot a =? HEAACv1) || (a_ot a =? HEAACv2)) = true.
Proof.
  unfold encode_asc. destruct (_ || _ || _); split; intros H; try reflexivity.
  - eexists; reflexivity.
  - destruct H as [bs H]. discriminate.
  - discriminate.
Qed.

(* Encode's Write calls in order; the extension frequency and the base object type only for SBR *)
Lemma asc_bits_eq a :
  asc_bits a = to_bits 5 (a_ot a) ++ freq_field (a_freq a) ++ to_bits 4 (a_chan a)
               ++ (if (a_ot a =? HEAACv1) || (a_ot a =? HEAACv2)
                   then freq_field (a_ext a) ++ to_bits 5 AAClc else [])
               ++ to_bits 3 0.
Proof. unfold asc_bits. destruct (_ || _); cbv zeta; rewrite <- !app_assoc; reflexivity. Qed.

(* the decoder consumes exactly the bits Encode wrote *)
Lemma asc_gs_canonical a tail :
  canonical a = true ->
  decode_asc_gs rstate rd rerr (mkR (asc_bits a ++ tail) false) = (Ok a, mkR tail false).
Proof.
  intros H. apply canonical_iff in H. rewrite asc_bits_eq. destruct a as [ot ch f e sbr ps].
  cbn [a_ot a_chan a_freq a_ext a_sbr a_ps] in *. destruct H as (Hot & Hc & Hf & He & -> & ->).
  destruct (asc_ot_flags ot Hot) as (H32 & Hhe & Hfl).
  unfold decode_asc_gs. rewrite <- !app_assoc.
  rewrite rd_to_bits_small by exact H32. cbv beta iota zeta.
  rewrite Hfl, Hhe. cbv beta iota.
  rewrite get_frequency_field by exact Hf. cbv beta iota.
  rewrite rd_to_bits_small by exact Hc. cbv beta iota.
  destruct (ot =? AAClc); cbn [negb]; cbv beta iota.
  - subst e. cbn [app]. now rewrite rd_to_bits.
  - rewrite <- !app_assoc. rewrite get_frequency_field by exact He. cbv beta iota.
    rewrite rd_to_bits_small by reflexivity. cbv beta iota.
    change (negb (AAClc =? AAClc)) with false. cbv beta iota. now rewrite rd_to_bits.
Qed.

Lemma decode_asc_gs_fst s : fst (decode_asc_gs rstate rd rerr s) = decode_asc_g rstate rd rerr s.
Proof.
  unfold decode_asc_gs, decode_asc_g.
  destruct (rd 5 s) as [aot s1].
  destruct (if aot =? AAClc then _ else _) as [[sbr ps]|]; [|reflexivity].
  destruct (get_frequency s1) as [[f|] s2]; [|reflexivity].
  destruct (rd 4 s2) as [ch s3].
  destruct ((aot =? HEAACv1) || (aot =? HEAACv2)).
  - destruct (get_frequency s3) as [[e|] s4]; [|reflexivity].
    destruct (rd 5 s4) as [aot2 s5]. destruct (negb (aot2 =? AAClc)); [reflexivity|].
    destruct (rd 3 s5). reflexivity.
  - destruct (rd 3 s3). reflexivity.
Qed.

Lemma decode_asc_encoded a : canonical a = true -> decode_asc (pack (flush (asc_bits a))) = Ok a.
Proof.
  intros H. unfold decode_asc, rinit.
  now rewrite unpack_pack_flush, <- decode_asc_gs_fst, asc_gs_canonical.
Qed.

Lemma asc_roundtrip a :
  canonical a = true -> rbind (encode_asc a) decode_asc = Ok a.
Proof. intros H. rewrite canonical_encode by exact H. now apply decode_asc_encoded. Qed.

Lemma asc_eqb_refl a : asc_eqb a a = true.
Proof. unfold asc_eqb. now rewrite !N.eqb_refl, !Z.eqb_refl, !Bool.eqb_reflx. Qed.

Lemma asc_roundtrip_ok_canonical a : canonical a = true -> asc_roundtrip_ok a = true.
Proof.
  intros H. unfold asc_roundtrip_ok.
  rewrite canonical_encode, decode_asc_encoded by exact H. apply asc_eqb_refl.
Qed.

(* a decoder that inverts the encoder makes the encoder injective on the domain *)
Lemma encode_asc_injective a b :
  canonical a = true -> canonical b = true -> encode_asc a = encode_asc b -> a = b.
Proof.
  intros Ha Hb E. pose proof (asc_roundtrip a Ha) as Ra. pose proof (asc_roundtrip b Hb) as Rb.
  rewrite E in Ra. rewrite Ra in Rb. now injection Rb.
Qed.

(* the table part of the domain *)
Definition asc_of (ot ch : N) (f e : Z) : asc :=
  mkAsc ot ch f (if ot =? AAClc then 0%Z else e) (negb (ot =? AAClc)) (ot =? HEAACv2).

Lemma asc_table_enum ot ch f e :
  In ot [AAClc; HEAACv1; HEAACv2] -> ch < 16 -> In f table_freqs -> In e table_freqs ->
  asc_roundtrip_ok (asc_of ot ch f e) = true.
Proof.
  intros Hot Hc Hf He. apply asc_roundtrip_ok_canonical, canonical_iff.
  unfold asc_of. cbn [a_ot a_chan a_freq a_ext a_sbr a_ps].
  apply table_freqs_ok in Hf, He.
  assert (asc_ot_ok ot) by (unfold asc_ot_ok; cbn [In] in Hot; intuition congruence).
  destruct (ot =? AAClc); repeat split; assumption.
Qed.
