(* C18TieProofs.v — the bit-list reading of bits.Reader used by the C18 model is tied, by proof, to
   the Go-level reader machine of C13Model (read_plain: the value/n/pos accumulator of bits.Reader
   over a byte slice, 64-bit wrap included):
     - one Read step of the machine and one rd step of the bit-list reader return the same value and
       stay related, on the success path and on the EOF / accumulated-error path;
     - hence the generic decoders (DecodeAudioSpecificConfig, DecodeADTSHeader incl. the sync search)
       instantiated with the machine compute exactly what the bit-list instantiation computes;
     - hence the C18 round-trip theorems hold for the machine-level decoders. *)
From V.lib Require Import Base.
From V.c13 Require C13Model C13Bits C13WriterProofs C13ReaderProofs C13RoundTrip C13PlainProofs.
From V.c18 Require Import C18Model C18BitsProofs.
From V.c18 Require C18AscProofs C18AdtsProofs.

Module G := C13Model.
Module GB := C13Bits.
Module GR := C13ReaderProofs.
Module GP := C13PlainProofs.

Lemma bits_of_to_bits w v : GB.bits_of w v = to_bits w v.
Proof. induction w as [|w IH]; cbn [GB.bits_of to_bits]; [reflexivity|now rewrite IH]. Qed.

Lemma bytes_to_bits_unpack l : GB.bytes_to_bits l = unpack l.
Proof. unfold GB.bytes_to_bits, unpack. apply flat_map_ext. intros a. apply bits_of_to_bits. Qed.

Lemma fold_bit_step l : forall acc,
  fold_left bit_step l acc = acc * 2 ^ N.of_nat (length l) + GB.val_of l.
Proof.
  induction l as [|b t IH]; intros acc.
  - cbn [fold_left length GB.val_of]. change (N.of_nat 0) with 0. rewrite N.pow_0_r. lia.
  - cbn [fold_left length GB.val_of]. rewrite IH. unfold bit_step.
    rewrite Nat2N.inj_succ, N.pow_succ_r'. ring.
Qed.

Lemma val_of_from_bits l : GB.val_of l = from_bits l.
Proof. unfold from_bits. rewrite fold_bit_step. lia. Qed.

Lemma take_bits_short : forall n acc l, (length l < n)%nat -> take_bits n acc l = None.
Proof.
  induction n as [|n IH]; intros acc l H; [lia|].
  destruct l as [|b t]; [reflexivity|]. cbn [take_bits]. apply IH. cbn [length] in H. lia.
Qed.

(* the machine runs out of data exactly when the bit list is too short *)
Lemma fill_plain_fail fuel : forall s n,
  GR.RInv s -> n <= 56 -> N.of_nat (length (GP.pbits s)) < n -> n <= G.rn s + 8 * N.of_nat fuel ->
  G.rerr (G.fill false fuel s n) = true.
Proof.
  induction fuel as [|f IH]; intros s n HI Hn Hlen Hfuel.
  - exfalso. unfold GP.pbits in Hlen. rewrite app_length, GB.bits_of_length in Hlen. lia.
  - cbn [G.fill].
    assert (Hrn : G.rn s < n).
    { unfold GP.pbits in Hlen. rewrite app_length, GB.bits_of_length in Hlen. lia. }
    destruct (N.ltb_spec (G.rn s) n) as [_|Hge]; [|lia].
    destruct HI as [He [Hv Hd]]. unfold G.byte_at. cbn [andb].
    destruct (nth_error (G.rdata s) (N.to_nat (G.rpos s))) as [b|] eqn:Eb; [|reflexivity].
    pose proof (GR.nth_error_skipn _ _ _ Eb) as Hsk.
    pose proof (GR.nth_error_Forall _ _ _ _ Hd Eb) as Hb256.
    set (s2 := G.mkR (G.rn s + 8) (N.lor (u64 (N.shiftl (G.rv s) 8)) b) (G.rpos s + 1)
                     (if b =? 0 then G.rzc s + 1 else 0) false (G.rdata s)).
    assert (Hb2 : GP.pbits s2 = GP.pbits s).
    { unfold GP.pbits, s2. cbn [G.rn G.rv G.rpos G.rdata]. rewrite Hsk.
      replace (N.to_nat (G.rpos s + 1)) with (S (N.to_nat (G.rpos s))) by lia.
      replace (N.to_nat (G.rn s + 8)) with (N.to_nat (G.rn s) + 8)%nat by lia.
      rewrite GR.acc_shift_bits by (try exact Hb256; lia).
      unfold GB.bytes_to_bits. cbn [flat_map]. rewrite <- app_assoc. reflexivity. }
    apply IH; [|exact Hn|rewrite Hb2; exact Hlen|unfold s2; cbn [G.rn]; lia].
    unfold GR.RInv, s2. cbn [G.rerr G.rv G.rn G.rdata]. repeat split; [|exact Hd].
    apply GR.acc_shift_lt; [lia|exact Hv|exact Hb256].
Qed.

Lemma read_plain_fail s n :
  GR.RGood s -> n <= 56 -> N.of_nat (length (GP.pbits s)) < n ->
  fst (G.read_plain s n) = 0 /\ G.rerr (snd (G.read_plain s n)) = true.
Proof.
  intros [HI Hn8] Hn Hlen. unfold G.read_plain, G.read_gen. destruct HI as [He [Hv Hd]]. rewrite He.
  assert (Hf : G.rerr (G.fill false (S (N.to_nat (n / 8) + 1)) s n) = true).
  { apply fill_plain_fail; [exact (conj He (conj Hv Hd))|exact Hn|exact Hlen|].
    pose proof (N.div_mod n 8 ltac:(lia)). pose proof (N.mod_lt n 8 ltac:(lia)). lia. }
  rewrite Hf. split; [reflexivity|exact Hf].
Qed.

(* one Read step *)
Definition go_rd (n : nat) (s : G.rstate) : N * G.rstate := G.read_plain s (N.of_nat n).

Definition Sim (sg : G.rstate) (sm : rstate) : Prop :=
  G.rerr sg = rerr sm /\ (rerr sm = false -> GR.RGood sg /\ GP.pbits sg = rbits sm).

Lemma sim_step n sg sm :
  (n <= 56)%nat -> Sim sg sm ->
  fst (go_rd n sg) = fst (rd n sm) /\ Sim (snd (go_rd n sg)) (snd (rd n sm)).
Proof.
  intros Hn [He Hg]. unfold go_rd, rd.
  destruct (rerr sm) eqn:Em.
  - (* accumulated error on both sides *)
    unfold G.read_plain, G.read_gen. rewrite He. cbn [fst snd].
    split; [reflexivity|]. split; [now rewrite He, Em|]. intros H. congruence.
  - destruct (Hg eq_refl) as [HG Hb].
    destruct (le_lt_dec n (length (rbits sm))) as [Hle|Hlt].
    + (* enough bits *)
      assert (Hsplit : rbits sm = firstn n (rbits sm) ++ skipn n (rbits sm)) by (symmetry; apply firstn_skipn).
      assert (Hl : length (firstn n (rbits sm)) = N.to_nat (N.of_nat n)).
      { rewrite firstn_length, Nat2N.id. lia. }
      destruct (GP.read_plain_prefix sg (N.of_nat n) (firstn n (rbits sm)) (skipn n (rbits sm)) HG
                  ltac:(lia) ltac:(rewrite Hb; exact Hsplit) Hl) as [s' [Hr [Hb' [HG' _]]]].
      assert (Ht : take_bits n 0 (rbits sm)
                   = Some (fold_left bit_step (firstn n (rbits sm)) 0, skipn n (rbits sm))).
      { rewrite <- (firstn_skipn n (rbits sm)) at 1. apply take_bits_app. rewrite firstn_length. lia. }
      rewrite Hr, Ht.
      cbn [fst snd]. split.
      * rewrite val_of_from_bits. reflexivity.
      * split; [cbn [rerr]; apply HG'|]. intros _. cbn [rbits]. split; assumption.
    + (* EOF *)
      rewrite take_bits_short by exact Hlt. cbn [fst snd].
      destruct (read_plain_fail sg (N.of_nat n) HG ltac:(lia) ltac:(rewrite Hb; lia)) as [H0 H1].
      split; [exact H0|]. split; [cbn [rerr]; exact H1|]. cbn [rerr]. discriminate.
Qed.

Lemma sim_err sg sm : Sim sg sm -> G.rerr sg = rerr sm.
Proof. intros [H _]. exact H. Qed.

Lemma sim_init data : bytes_ok data = true -> Sim (G.rinit data) (rinit data).
Proof.
  intros Hb. split; [reflexivity|]. intros _. split.
  - split; [|cbn [G.rinit G.rn]; lia]. unfold GR.RInv, G.rinit. cbn [G.rerr G.rv G.rn G.rdata].
    split; [reflexivity|]. split; [reflexivity|].
    unfold bytes_ok in Hb. rewrite forallb_forall in Hb. apply Forall_forall. intros x Hx.
    specialize (Hb x Hx). unfold byte_ok in Hb. unfold GR.lt256. lia.
  - unfold GP.pbits, G.rinit, rinit. cbn [G.rn G.rv G.rpos G.rdata rbits N.to_nat GB.bits_of skipn app].
    apply bytes_to_bits_unpack.
Qed.

(* the generic decoders agree on related readers *)
Section Simulation.
Variables (St1 St2 : Type).
Variable rd1 : nat -> St1 -> N * St1.
Variable rd2 : nat -> St2 -> N * St2.
Variable err1 : St1 -> bool.
Variable err2 : St2 -> bool.
Variable R : St1 -> St2 -> Prop.
Hypothesis step : forall n s1 s2, (n <= 56)%nat -> R s1 s2 ->
  fst (rd1 n s1) = fst (rd2 n s2) /\ R (snd (rd1 n s1)) (snd (rd2 n s2)).
Hypothesis errs : forall s1 s2, R s1 s2 -> err1 s1 = err2 s2.

Ltac rstep n v a' b' H' :=
  match goal with
  | H : R ?a ?b |- _ =>
      pose proof (step n a b ltac:(lia) H) as H';
      destruct (rd1 n a) as [v a']; destruct (rd2 n b) as [? b'];
      cbn [fst snd] in H'; destruct H' as [<- H']; clear H
  end.

Lemma get_frequency_sim s1 s2 :
  R s1 s2 ->
  fst (get_frequency_g St1 rd1 err1 s1) = fst (get_frequency_g St2 rd2 err2 s2) /\
  R (snd (get_frequency_g St1 rd1 err1 s1)) (snd (get_frequency_g St2 rd2 err2 s2)).
Proof.
  intros H. unfold get_frequency_g. rstep 4%nat idx a1 b1 H1.
  destruct (idx =? 15).
  - rstep 24%nat f a2 b2 H2. rewrite (errs _ _ H2). destruct (err2 b2); cbn [fst snd]; split; auto.
  - rewrite (errs _ _ H1). destruct (err2 b1); cbn [fst snd]; split; auto.
Qed.

Lemma decode_asc_sim s1 s2 :
  R s1 s2 -> decode_asc_g St1 rd1 err1 s1 = decode_asc_g St2 rd2 err2 s2.
Proof.
  intros H. unfold decode_asc_g. rstep 5%nat aot a1 b1 H1.
  destruct (if aot =? AAClc then Some (false, false)
            else if aot =? HEAACv1 then Some (true, false)
            else if aot =? HEAACv2 then Some (true, true) else None) as [[sbr ps]|]; [|reflexivity].
  pose proof (get_frequency_sim _ _ H1) as [Hf H2].
  destruct (get_frequency_g St1 rd1 err1 a1) as [fo1 a2]. destruct (get_frequency_g St2 rd2 err2 b1) as [fo2 b2].
  cbn [fst snd] in Hf, H2. subst fo2. destruct fo1 as [f|]; [|reflexivity].
  clear H1. rstep 4%nat ch a3 b3 H3.
  destruct ((aot =? HEAACv1) || (aot =? HEAACv2)).
  - pose proof (get_frequency_sim _ _ H3) as [Hf H4].
    destruct (get_frequency_g St1 rd1 err1 a3) as [eo1 a4]. destruct (get_frequency_g St2 rd2 err2 b3) as [eo2 b4].
    cbn [fst snd] in Hf, H4. subst eo2. destruct eo1 as [e|]; [|reflexivity].
    clear H3. rstep 5%nat aot2 a5 b5 H5. destruct (negb (aot2 =? AAClc)); [reflexivity|].
    rstep 3%nat ga a6 b6 H6. reflexivity.
  - rstep 3%nat ga a4 b4 H4. reflexivity.
Qed.

Lemma sync_loop_sim : forall fuel s1 s2 sync2 off,
  R s1 s2 ->
  let r1 := sync_loop_g St1 rd1 fuel s1 sync2 off in
  let r2 := sync_loop_g St2 rd2 fuel s2 sync2 off in
  fst r1 = fst r2 /\ R (snd r1) (snd r2).
Proof.
  induction fuel as [|f IH]; intros s1 s2 sync2 off H; cbn [sync_loop_g]; cbv zeta.
  - cbn [fst snd]. split; [reflexivity|exact H].
  - destruct (negb (sync2 =? 255)).
    + rstep 8%nat v a1 b1 H1. destruct (v mod 256 =? 255).
      * rstep 8%nat w a2 b2 H2. destruct (is_sync2 (w mod 256)).
        -- cbn [fst snd]. split; [reflexivity|exact H2].
        -- apply IH. exact H2.
      * apply IH. exact H1.
    + destruct (sync2 =? 255).
      * rstep 8%nat w a2 b2 H2. destruct (is_sync2 (w mod 256)).
        -- cbn [fst snd]. split; [reflexivity|exact H2].
        -- apply IH. exact H2.
      * apply IH. exact H.
Qed.

Lemma decode_after_sync_sim sync2 off s1 s2 :
  R s1 s2 ->
  decode_after_sync_g St1 rd1 err1 sync2 off s1 = decode_after_sync_g St2 rd2 err2 sync2 off s2.
Proof.
  intros H. unfold decode_after_sync_g. cbv zeta.
  destruct (negb (N.land (N.shiftr sync2 1) 3 =? 0)); [reflexivity|].
  rstep 2%nat v1 a1 b1 H1. rstep 4%nat v2 a2 b2 H2. rstep 1%nat v3 a3 b3 H3. rstep 3%nat v4 a4 b4 H4.
  rstep 4%nat v5 a5 b5 H5. rstep 13%nat v6 a6 b6 H6. rstep 11%nat v7 a7 b7 H7. rstep 2%nat v8 a8 b8 H8.
  destruct (negb (v8 =? 0)); [reflexivity|].
  destruct (negb (N.land sync2 1 =? 1)).
  - pose proof (step 16%nat _ _ ltac:(lia) H8) as [_ H9]. rewrite (errs _ _ H9). reflexivity.
  - rewrite (errs _ _ H8). reflexivity.
Qed.

Lemma decode_adts_sim s1 s2 :
  R s1 s2 -> decode_adts_g St1 rd1 err1 s1 = decode_adts_g St2 rd2 err2 s2.
Proof.
  intros H. unfold decode_adts_g.
  pose proof (sync_loop_sim ts_packet_size s1 s2 0 0%Z H) as Hl. cbv zeta in Hl.
  destruct (sync_loop_g St1 rd1 ts_packet_size s1 0 0%Z) as [[[found1 x1] o1] t1].
  destruct (sync_loop_g St2 rd2 ts_packet_size s2 0 0%Z) as [[[found2 x2] o2] t2].
  cbn [fst snd] in Hl. destruct Hl as [Heq Hr]. injection Heq as -> -> ->.
  rewrite (errs _ _ Hr). destruct (err2 t2); [reflexivity|].
  destruct (negb found2); [reflexivity|]. now apply decode_after_sync_sim.
Qed.
End Simulation.

(* the Go-level decoders *)
Definition decode_asc_go (data : list N) : res asc :=
  decode_asc_g G.rstate go_rd G.rerr (G.rinit data).
Definition decode_adts_go (data : list N) : res (adts * Z) :=
  decode_adts_g G.rstate go_rd G.rerr (G.rinit data).

Lemma decode_asc_tie data : bytes_ok data = true -> decode_asc_go data = decode_asc data.
Proof.
  intros Hb. exact (decode_asc_sim _ _ go_rd rd G.rerr rerr Sim sim_step sim_err _ _ (sim_init data Hb)).
Qed.

Lemma decode_adts_tie data : bytes_ok data = true -> decode_adts_go data = decode_adts data.
Proof.
  intros Hb. exact (decode_adts_sim _ _ go_rd rd G.rerr rerr Sim sim_step sim_err _ _ (sim_init data Hb)).
Qed.

Module GW := C13WriterProofs.

(* the Go-level writer machine (bits.Writer over a byte sink) running a list of Write(v, w) calls *)
Definition go_write_state (fs : list (N * N)) (s : G.wstate) : G.wstate :=
  fold_left (fun s '(v, w) => G.write_plain s v w) fs s.
Definition go_write (fs : list (N * N)) (do_flush : bool) : list N :=
  let s := go_write_state fs G.winit in
  G.wout (if do_flush then G.flush_plain s else s).

Definition field_bits (fs : list (N * N)) : list bool :=
  concat (map (fun '(v, w) => to_bits (N.to_nat w) v) fs).
Definition widths_ok (fs : list (N * N)) : bool := forallb (fun '(_, w) => w <=? 56) fs.

Lemma pending_length s : length (GW.pending s) = N.to_nat (G.wn s).
Proof. unfold GW.pending. apply GB.bits_of_length. Qed.

Lemma go_writer_stream : forall fs s raw,
  widths_ok fs = true -> GW.WInv false s raw ->
  exists raw', GW.WInv false (go_write_state fs s) raw' /\
    unpack raw' ++ GW.pending (go_write_state fs s) = (unpack raw ++ GW.pending s) ++ field_bits fs.
Proof.
  induction fs as [|[v w] t IH]; intros s raw Hw HI.
  - exists raw. split; [exact HI|]. unfold field_bits. cbn [map concat go_write_state fold_left].
    now rewrite app_nil_r.
  - cbn [widths_ok forallb] in Hw. apply andb_prop in Hw. destruct Hw as [Hw Ht]. apply N.leb_le in Hw.
    destruct (C13RoundTrip.plain_writer_stream s raw v w HI Hw) as [raw1 [HI1 Hs1]].
    destruct (IH (G.write_plain s v w) raw1 Ht HI1) as [raw2 [HI2 Hs2]].
    exists raw2. split; [exact HI2|].
    cbn [go_write_state fold_left]. fold (go_write_state t (G.write_plain s v w)).
    rewrite Hs2. rewrite !bytes_to_bits_unpack in Hs1. rewrite Hs1.
    unfold field_bits. cbn [map concat]. rewrite bits_of_to_bits, <- !app_assoc. reflexivity.
Qed.

Lemma from_to_bits8 b : b < 256 -> from_bits (to_bits 8 b) = b.
Proof.
  intros H. unfold from_bits. rewrite fold_to_bits. change (2 ^ N.of_nat 8) with 256.
  rewrite N.mod_small by exact H. lia.
Qed.

Lemma pack_short p : (length p < 8)%nat -> pack p = [].
Proof. intros H. do 8 (destruct p as [|? p]; [reflexivity|]). cbn [length] in H. lia. Qed.

Lemma pack_unpack_app : forall raw p,
  bytes_ok raw = true -> (length p < 8)%nat -> pack (unpack raw ++ p) = raw.
Proof.
  induction raw as [|b raw IH]; intros p Hb Hp.
  - cbn [unpack flat_map app]. now apply pack_short.
  - rewrite bytes_ok_cons in Hb. apply andb_prop in Hb. destruct Hb as [Hb Hr].
    unfold byte_ok in Hb. apply N.ltb_lt in Hb.
    rewrite unpack_cons, <- app_assoc. cbn [to_bits app pack].
    change (from_bits _) with (from_bits (to_bits 8 b)). rewrite from_to_bits8 by exact Hb.
    f_equal. now apply IH.
Qed.

Lemma Forall_lt256_bytes_ok l : Forall (fun b => b < 256) l -> bytes_ok l = true.
Proof.
  intros H. unfold bytes_ok. apply forallb_forall. intros x Hx.
  rewrite Forall_forall in H. specialize (H x Hx). unfold byte_ok. lia.
Qed.

Lemma wout_raw s raw : GW.WInv false s raw -> G.wout s = raw.
Proof. intros [_ [_ H]]. unfold G.wout. rewrite H. apply rev_involutive. Qed.

Lemma zeros_to_bits k : to_bits k 0 = repeat false k.
Proof. induction k as [|k IH]; [reflexivity|]. cbn [to_bits repeat]. now rewrite N.bits_0, IH. Qed.

(* without Flush: the bytes that have left the writer are the packed complete bytes *)
Lemma go_write_noflush fs :
  widths_ok fs = true -> go_write fs false = pack (field_bits fs).
Proof.
  intros Hw. unfold go_write. cbv zeta.
  destruct (go_writer_stream fs G.winit [] Hw (GW.WInv_init false)) as [raw [HI Hs]].
  cbn [unpack flat_map app] in Hs. change (GW.pending G.winit) with (@nil bool) in Hs. cbn [app] in Hs.
  rewrite <- Hs. rewrite (wout_raw _ _ HI). symmetry. apply pack_unpack_app.
  - apply Forall_lt256_bytes_ok. apply HI.
  - rewrite pending_length. destruct HI as [Hn _]. lia.
Qed.

(* with Flush: the last partial byte is padded with zeros *)
Lemma go_write_flush fs :
  widths_ok fs = true -> go_write fs true = pack (flush (field_bits fs)).
Proof.
  intros Hw. unfold go_write. cbv zeta.
  destruct (go_writer_stream fs G.winit [] Hw (GW.WInv_init false)) as [raw [HI Hs]].
  cbn [unpack flat_map app] in Hs. change (GW.pending G.winit) with (@nil bool) in Hs. cbn [app] in Hs.
  set (s := go_write_state fs G.winit) in *.
  pose proof (wout_raw _ _ HI) as Hout.
  assert (Hraw : bytes_ok raw = true) by (apply Forall_lt256_bytes_ok; apply HI).
  assert (Hlen : length (field_bits fs) = (8 * length raw + N.to_nat (G.wn s))%nat).
  { rewrite <- Hs, app_length, pending_length. f_equal.
    rewrite <- bytes_to_bits_unpack. apply GB.bytes_to_bits_length. }
  destruct HI as [Hn8 [Hlt Hrev]].
  unfold G.flush_plain. destruct (N.eqb_spec (G.wn s) 0) as [E|E].
  - rewrite Hout. unfold flush, pad_len. rewrite Hlen, E.
    replace ((8 - (8 * length raw + N.to_nat 0) mod 8) mod 8)%nat with 0%nat by lia.
    cbn [repeat]. rewrite app_nil_r, <- Hs.
    symmetry. apply pack_unpack_app; [exact Hraw|]. rewrite pending_length. lia.
  - unfold G.wout. cbn [G.wrev]. rewrite Hrev. cbn [rev]. rewrite rev_involutive.
    set (B := N.land (N.shiftl (G.wv s) (8 - G.wn s)) 255).
    assert (HB : to_bits 8 B = GW.pending s ++ repeat false (8 - N.to_nat (G.wn s))).
    { rewrite <- zeros_to_bits, <- !bits_of_to_bits. unfold GW.pending.
      replace 8%nat with (N.to_nat (G.wn s) + (8 - N.to_nat (G.wn s)))%nat at 1 by lia.
      apply GB.bits_of_app_ext.
      * intros i Hi. unfold B. rewrite N.land_spec. change 255 with (N.ones 8).
        rewrite N.ones_spec_low by lia. rewrite andb_true_r.
        rewrite N.shiftl_spec_low by lia. rewrite N.bits_0. reflexivity.
      * intros i Hi. unfold B. rewrite N.land_spec. change 255 with (N.ones 8).
        rewrite N.ones_spec_low by lia. rewrite andb_true_r.
        rewrite N.shiftl_spec_high' by lia. f_equal. lia. }
    unfold flush, pad_len. rewrite Hlen.
    replace ((8 - (8 * length raw + N.to_nat (G.wn s)) mod 8) mod 8)%nat with (8 - N.to_nat (G.wn s))%nat by lia.
    rewrite <- Hs, <- app_assoc, <- HB.
    replace (unpack raw ++ to_bits 8 B) with (unpack (raw ++ [B]) ++ []).
    2:{ rewrite unpack_app, app_nil_r. cbn [unpack flat_map]. now rewrite app_nil_r. }
    symmetry. apply pack_unpack_app; [|cbn [length]; lia].
    rewrite bytes_ok_app, Hraw. cbn [andb bytes_ok forallb]. unfold byte_ok, B.
    rewrite land_255. rewrite andb_true_r. apply N.ltb_lt. apply N.mod_lt. lia.
Qed.

(* the Write calls of the two encoders *)
Definition freq_fields (f : Z) : list (N * N) :=
  match index_of_freq f with
  | Some i => [(i, 4)]
  | None => [(15, 4); (uint_of_int f, 24)]
  end.

(* func (a *AudioSpecificConfig) Encode: the sequence of bw.Write calls *)
Definition asc_fields (a : asc) : list (N * N) :=
  [(a_ot a, 5)] ++ freq_fields (a_freq a) ++ [(a_chan a, 4)]
  ++ (if (a_ot a =? HEAACv1) || (a_ot a =? HEAACv2) then freq_fields (a_ext a) ++ [(AAClc, 5)] else [])
  ++ [(0, 3)].

(* func (a ADTSHeader) Encode: the sequence of bw.Write calls *)
Definition adts_fields (h : adts) : list (N * N) :=
  [(4095, 12); (1, 4); (u64 (h_ot h + 18446744073709551615), 2); (h_sfi h, 4); (0, 1); (h_chan h, 3); (0, 4);
   (u16 (h_plen h + 7), 13); (h_bf h, 11); (0, 2)].

Lemma freq_fields_bits f : field_bits (freq_fields f) = freq_field f.
Proof.
  unfold freq_fields, freq_field, field_bits. destruct (index_of_freq f); cbn [map concat N.to_nat Pos.to_nat Pos.iter_op Nat.add];
    now rewrite ?app_nil_r.
Qed.

Lemma field_bits_app a b : field_bits (a ++ b) = field_bits a ++ field_bits b.
Proof. unfold field_bits. now rewrite map_app, concat_app. Qed.

Lemma field_bits_one v w : field_bits [(v, w)] = to_bits (N.to_nat w) v.
Proof. unfold field_bits. cbn [map concat]. apply app_nil_r. Qed.

Lemma asc_fields_bits a : field_bits (asc_fields a) = asc_bits a.
Proof.
  unfold asc_fields. rewrite C18AscProofs.asc_bits_eq, !field_bits_app, !field_bits_one, freq_fields_bits.
  destruct ((a_ot a =? HEAACv1) || (a_ot a =? HEAACv2)); [|reflexivity].
  now rewrite field_bits_app, field_bits_one, freq_fields_bits.
Qed.

Lemma adts_fields_bits h : field_bits (adts_fields h) = adts_bits h.
Proof. unfold adts_fields, adts_bits, field_bits. cbn [map concat]. now rewrite app_nil_r. Qed.

Lemma freq_fields_widths f : widths_ok (freq_fields f) = true.
Proof. unfold freq_fields. destruct (index_of_freq f); reflexivity. Qed.

Lemma asc_fields_widths a : widths_ok (asc_fields a) = true.
Proof.
  unfold asc_fields, widths_ok. rewrite !forallb_app. fold (widths_ok (freq_fields (a_freq a))).
  rewrite freq_fields_widths. destruct (_ || _).
  - rewrite forallb_app. fold (widths_ok (freq_fields (a_ext a))). rewrite freq_fields_widths. reflexivity.
  - reflexivity.
Qed.

(* the bytes the machine-level bits.Writer emits for the two encoders are the model's bytes *)
Lemma encode_asc_tie a bs : encode_asc a = Ok bs -> go_write (asc_fields a) true = bs.
Proof.
  unfold encode_asc. destruct (_ || _ || _); [|discriminate]. intros [= <-].
  rewrite go_write_flush by apply asc_fields_widths. now rewrite asc_fields_bits.
Qed.

Lemma encode_adts_tie h : go_write (adts_fields h) false = encode_adts h.
Proof. rewrite go_write_noflush by reflexivity. now rewrite adts_fields_bits. Qed.

Lemma asc_roundtrip_machine a bs :
  canonical a = true -> encode_asc a = Ok bs ->
  go_write (asc_fields a) true = bs /\ decode_asc_go bs = Ok a.
Proof.
  intros Hc He. split; [now apply encode_asc_tie|].
  rewrite C18AscProofs.canonical_encode in He by exact Hc. injection He as <-.
  rewrite decode_asc_tie by apply pack_bytes_ok. now apply C18AscProofs.decode_asc_encoded.
Qed.

Lemma adts_sync_offset_machine junk h rest :
  (length junk <= 187)%nat -> bytes_ok junk = true -> no_sync_in junk = true -> bytes_ok rest = true ->
  adts_canonical h = true ->
  decode_adts_go (junk ++ go_write (adts_fields h) false ++ rest) = Ok (h, Z.of_nat (length junk)).
Proof.
  intros Hl Hb Hn Hr Hc. rewrite encode_adts_tie.
  rewrite decode_adts_tie.
  - now apply C18AdtsProofs.adts_sync_offset.
  - rewrite !bytes_ok_app, Hb, Hr. unfold encode_adts. now rewrite pack_bytes_ok.
Qed.
