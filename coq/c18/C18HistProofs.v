(* C18HistProofs.v — histories: in the model an entry is a pure value, so
   - later operations never change an earlier entry (the state only grows at its end),
   - every entry of every history decodes to the configuration it was built from,
   - every encode observed in the middle of a history shows the bytes the entry has at the end;
   k configurations / headers written back to back into one writer and read back from one reader come
   back one by one, each as itself, whatever precedes or follows. *)
From V.lib Require Import Base.
From V.c18 Require Import C18Model C18BitsProofs C18AscProofs C18AdtsProofs C18EntryModel C18EntryProofs C18HistModel.

Fixpoint added (ops : list hop) : list hentry :=
  match ops with
  | [] => []
  | HBuild ini trk ot f :: r =>
      match set_aac_descriptor ot f with
      | Ok bs => mkH ini trk ot f bs :: added r
      | _ => added r
      end
  | _ :: r => added r
  end.

Lemma hrun_cons op r st :
  hrun (op :: r) st = (fst (hrun r (fst (hstep st op))), snd (hstep st op) :: snd (hrun r (fst (hstep st op)))).
Proof.
  cbn [hrun]. destruct (hstep st op) as [st1 o]. cbn [fst snd]. destruct (hrun r st1) as [st2 os]. reflexivity.
Qed.

Lemma hrun_state ops : forall st, fst (hrun ops st) = st ++ added ops.
Proof.
  induction ops as [|op r IH]; intros st.
  - cbn [hrun fst added]. now rewrite app_nil_r.
  - rewrite hrun_cons. cbn [fst]. rewrite IH. destruct op as [ini trk ot f|i|ini]; cbn [hstep added].
    + destruct (set_aac_descriptor ot f); cbn [fst]; try reflexivity. now rewrite <- app_assoc.
    + destruct (nth_error st i); reflexivity.
    + reflexivity.
Qed.

Lemma added_app a b : added (a ++ b) = added a ++ added b.
Proof.
  induction a as [|op r IH]; [reflexivity|]. cbn [app added].
  destruct op as [ini trk ot f|i|ini]; try exact IH.
  destruct (set_aac_descriptor ot f); try exact IH. cbn [app]. now rewrite IH.
Qed.

(* whatever follows, the i-th entry stays the value it is *)
Lemma history_entry_stable pre post st i e :
  nth_error (fst (hrun pre st)) i = Some e ->
  nth_error (fst (hrun (pre ++ post) st)) i = Some e.
Proof.
  rewrite !hrun_state, added_app. intros H.
  rewrite app_assoc. rewrite nth_error_app1; [exact H|].
  apply nth_error_Some. rewrite H. discriminate.
Qed.

Lemma added_built ops : map (fun e => (he_ot e, he_f e)) (added ops) = built ops.
Proof.
  induction ops as [|op r IH]; [reflexivity|]. cbn [added built].
  destruct op as [ini trk ot f|i|ini]; try exact IH.
  destruct (set_aac_descriptor ot f); try exact IH. cbn [map he_ot he_f]. now rewrite IH.
Qed.

Lemma added_sound ops e : In e (added ops) -> set_aac_descriptor (he_ot e) (he_f e) = Ok (he_bytes e).
Proof.
  induction ops as [|op r IH]; [intros []|]. cbn [added].
  destruct op as [ini trk ot f|i|ini]; try exact IH.
  destruct (set_aac_descriptor ot f) eqn:E; try exact IH.
  intros [<- | H]; [exact E|now apply IH].
Qed.

(* the i-th entry of the state reached by ANY history is the entry its own build made, and it decodes
   (both decoder paths) to the configuration of that build *)
Lemma entries_independent ops i e :
  nth_error (fst (hrun ops [])) i = Some e ->
  nth_error (built ops) i = Some (he_ot e, he_f e)
  /\ set_aac_descriptor (he_ot e) (he_f e) = Ok (he_bytes e)
  /\ (entry_freq_ok (he_ot e) (he_f e) = true ->
      entry_asc (he_bytes e) = EOk (set_aac_asc (he_ot e) (he_f e))
      /\ entry_asc_sr (he_bytes e) = EOk (set_aac_asc (he_ot e) (he_f e))).
Proof.
  rewrite hrun_state. cbn [app]. intros H.
  split; [|split].
  - rewrite <- added_built. now rewrite nth_error_map, H.
  - apply (added_sound ops). eapply nth_error_In; exact H.
  - intros Hok. pose proof (added_sound ops e (nth_error_In _ _ H)) as Hs.
    destruct (sample_entry _ _ Hok) as (bs & dc & Hb & _ & Ha).
    destruct (sample_entry_sr _ _ Hok) as (bs' & dc' & Hb' & _ & Ha').
    rewrite Hs in Hb, Hb'. injection Hb as <-. injection Hb' as <-. now split.
Qed.

Lemma hrun_app a b st :
  hrun (a ++ b) st = (fst (hrun b (fst (hrun a st))), snd (hrun a st) ++ snd (hrun b (fst (hrun a st)))).
Proof.
  revert st. induction a as [|op r IH]; intros st.
  - cbn [app hrun fst snd]. now destruct (hrun b st).
  - cbn [app]. rewrite !hrun_cons. rewrite IH. cbn [fst snd app]. reflexivity.
Qed.

Lemma hrun_obs_length ops : forall st, length (snd (hrun ops st)) = length ops.
Proof.
  induction ops as [|op r IH]; intros st; [reflexivity|]. rewrite hrun_cons. cbn [snd length]. now rewrite IH.
Qed.

(* an encode of entry i observed in the middle of a history shows the bytes entry i has at the end *)
Lemma history_encode_obs pre post i st b :
  nth_error (snd (hrun (pre ++ HEncEntry i :: post) st)) (length pre) = Some (OBytes [b]) ->
  exists e, nth_error (fst (hrun (pre ++ HEncEntry i :: post) st)) i = Some e /\ he_bytes e = b.
Proof.
  intros H. rewrite hrun_app in H. cbn [snd] in H.
  rewrite nth_error_app2 in H by (rewrite hrun_obs_length; lia).
  rewrite hrun_obs_length, Nat.sub_diag in H. rewrite hrun_cons in H. cbn [snd nth_error hstep] in H.
  destruct (nth_error (fst (hrun pre st)) i) as [e|] eqn:E; cbn [snd] in H; [|discriminate].
  exists e. split; [now apply history_entry_stable|]. now injection H.
Qed.

(* one call on a reader holding the encoding followed by anything: the configuration comes back and
   exactly the encoding's bytes are gone *)
Lemma decode_asc_gs_bytes a tb :
  canonical a = true ->
  let bs := pack (flush (asc_bits a)) in
  exists s, decode_asc_gs rstate rd rerr (rinit (bs ++ tb)) = (Ok a, s) /\ bytes_left (bs ++ tb) s = tb.
Proof.
  intros Hc bs. unfold rinit. rewrite unpack_app. unfold bs at 1. rewrite unpack_pack_flush.
  rewrite <- app_assoc. rewrite (asc_gs_canonical a _ Hc).
  eexists. split; [reflexivity|].
  unfold bytes_left. cbn [rbits]. rewrite !app_length, repeat_length, unpack_length.
  pose proof (pad_len_lt (length (asc_bits a))) as Hp.
  replace (length bs + length tb - (pad_len (length (asc_bits a)) + 8 * length tb) / 8)%nat
    with (length bs) by lia.
  rewrite skipn_app, Nat.sub_diag, skipn_all. reflexivity.
Qed.

Fixpoint asc_stream_expect (l : list asc) (rest : list N) : list (res asc * N) :=
  match l with
  | [] => []
  | a :: r => (Ok a, lenN (encode_asc_stream r ++ rest)) :: asc_stream_expect r rest
  end.

Lemma asc_stream_independent l : forall rest,
  forallb canonical l = true ->
  decode_asc_stream (length l) (encode_asc_stream l ++ rest) = asc_stream_expect l rest.
Proof.
  induction l as [|a r IH]; intros rest H; [reflexivity|].
  cbn [forallb] in H. apply andb_prop in H. destruct H as [Ha Hr].
  cbn [length encode_asc_stream decode_asc_stream asc_stream_expect].
  rewrite (canonical_encode a Ha). rewrite <- app_assoc.
  destruct (decode_asc_gs_bytes a (encode_asc_stream r ++ rest) Ha) as (s & -> & ->).
  now rewrite IH.
Qed.

Lemma asc_stream_values l rest :
  forallb canonical l = true ->
  map fst (decode_asc_stream (length l) (encode_asc_stream l ++ rest)) = map Ok l.
Proof.
  intros H. rewrite asc_stream_independent by exact H.
  clear H. induction l as [|a r IH]; [reflexivity|]. cbn [asc_stream_expect map fst]. now rewrite IH.
Qed.

Definition adts_item_ok (it : list N * adts) : bool :=
  (length (fst it) <=? 187)%nat && bytes_ok (fst it) && no_sync_in (fst it) && adts_canonical (snd it).

Fixpoint adts_stream_expect (l : list (list N * adts)) (rest : list N) : list (res (adts * Z) * N) :=
  match l with
  | [] => []
  | (j, h) :: r => (Ok (h, Z.of_nat (length j)), lenN (encode_adts_stream r ++ rest)) :: adts_stream_expect r rest
  end.

Lemma adts_stream_independent l : forall rest,
  forallb adts_item_ok l = true ->
  decode_adts_stream (length l) (encode_adts_stream l ++ rest) = adts_stream_expect l rest.
Proof.
  induction l as [|[j h] r IH]; intros rest H; [reflexivity|].
  cbn [forallb] in H. apply andb_prop in H. destruct H as [Hi Hr].
  unfold adts_item_ok in Hi. cbn [fst snd] in Hi.
  apply andb_prop in Hi. destruct Hi as [Hi Hc].
  apply andb_prop in Hi. destruct Hi as [Hi Hn].
  apply andb_prop in Hi. destruct Hi as [Hl Hb]. apply Nat.leb_le in Hl.
  cbn [length encode_adts_stream decode_adts_stream adts_stream_expect].
  rewrite <- !app_assoc.
  rewrite (adts_sync_offset j h (encode_adts_stream r ++ rest) Hl Hb Hn Hc).
  apply adts_canonical_iff in Hc. destruct Hc as (_ & -> & _). rewrite Nat2Z.id.
  replace (skipn (length j + N.to_nat 7) (j ++ encode_adts h ++ encode_adts_stream r ++ rest))
    with (encode_adts_stream r ++ rest).
  2:{ symmetry. rewrite skipn_app. rewrite skipn_all2 by lia. cbn [app].
      replace (length j + N.to_nat 7 - length j)%nat with (length (encode_adts h))
        by (rewrite encode_adts_length; lia).
      rewrite skipn_app, Nat.sub_diag, skipn_all. reflexivity. }
  now rewrite IH.
Qed.
