(* C18EntryProofs.v — the AAC sample-entry path: decoding the mp4a entry that SetAACDescriptor
   builds returns the entry fields and the DecSpecificInfo bytes, and DecodeAudioSpecificConfig on
   them returns the configuration SetAACDescriptor built.  The entry's sample-rate field is exact
   below 65536 and refuted above (88200 / 96000). *)
From V.lib Require Import Base.
From V.c18 Require Import C18Model C18BitsProofs C18AscProofs C18EntryModel.

Ltac estep := cbv beta iota delta [ebind].

(* the test the decoder makes next (bytes left, size limits, tags): settled by linear arithmetic *)
Ltac next_test :=
  match goal with
  | |- context [if ?b then _ else _] => first [replace b with false by lia | replace b with true by lia]
  end; cbv beta iota.

(* reads invert writes *)
Lemma r_u8_cons b l p : r_u8 (b :: l, p) = EOk (b, (l, p + 1)).
Proof. reflexivity. Qed.

(* the big-endian bytes of a 16- and a 32-bit value put together again: v = 256 * (v / 256) + v mod 256,
   three times over for 32 bits; the quotients and remainders are abstracted before the linear step *)
Lemma be16_join v : v < 65536 -> (v / 256) mod 256 * 256 + v mod 256 = v.
Proof.
  intros H. rewrite (N.mod_small (v / 256)) by (apply N.div_lt_upper_bound; [discriminate|exact H]).
  rewrite N.mul_comm. symmetry. apply N.div_mod'.
Qed.

Lemma be32_join v :
  v < 4294967296 ->
  ((v / 16777216) mod 256 * 256 + (v / 65536) mod 256) * 65536 + ((v / 256) mod 256 * 256 + v mod 256) = v.
Proof.
  intros H. rewrite (N.mod_small (v / 16777216)) by (apply N.div_lt_upper_bound; [discriminate|exact H]).
  pose proof (N.div_mod' v 256) as E0. pose proof (N.div_mod' (v / 256) 256) as E1.
  pose proof (N.div_mod' (v / 65536) 256) as E2.
  rewrite N.div_div in E1, E2 by discriminate.
  change (256 * 256) with 65536 in E1. change (65536 * 256) with 16777216 in E2.
  revert E0 E1 E2.
  generalize (v / 16777216) (v / 65536) (v / 256) ((v / 65536) mod 256) ((v / 256) mod 256) (v mod 256).
  clear. intros. lia.
Qed.

Lemma r_u16_be16 v l p : v < 65536 -> r_u16 (be16 v ++ l, p) = EOk (v, (l, p + 2)).
Proof.
  intros H. unfold r_u16, be16. cbn [app]. rewrite !r_u8_cons. estep. rewrite r_u8_cons. estep.
  rewrite be16_join by exact H. now rewrite <- N.add_assoc.
Qed.

Lemma r_u32_be32 v l p : v < 4294967296 -> r_u32 (be32 v ++ l, p) = EOk (v, (l, p + 4)).
Proof.
  intros H. unfold r_u32, r_u16, be32. cbn [app].
  rewrite r_u8_cons. estep. rewrite r_u8_cons. estep. rewrite r_u8_cons. estep. rewrite r_u8_cons. estep.
  rewrite be32_join by exact H. now rewrite <- !N.add_assoc.
Qed.

Lemma firstn_lenN_app {A} (x l : list A) : firstn (N.to_nat (lenN x)) (x ++ l) = x.
Proof.
  unfold lenN. rewrite Nat2N.id. rewrite firstn_app, Nat.sub_diag, firstn_all. cbn [firstn]. apply app_nil_r.
Qed.

Lemma skipn_lenN_app {A} (x l : list A) : skipn (N.to_nat (lenN x)) (x ++ l) = l.
Proof.
  unfold lenN. rewrite Nat2N.id. rewrite skipn_app, Nat.sub_diag, skipn_all. reflexivity.
Qed.

Lemma r_take_app x l p k : lenN x = k -> r_take k (x ++ l, p) = EOk (x, (l, p + k)).
Proof.
  intros <-. unfold r_take. rewrite lenN_app. next_test.
  rewrite firstn_lenN_app, skipn_lenN_app. reflexivity.
Qed.

Lemma desc_size_0 x : desc_size x 0 = [x mod 128].
Proof.
  unfold desc_size. change (7 * N.of_nat 0) with 0. rewrite N.pow_0_r, N.div_1_r. reflexivity.
Qed.

Lemma size_loop_small fuel tmp n acc s : tmp < 128 -> size_loop fuel tmp n acc s = EOk (n, acc, s).
Proof. intros H. destruct fuel; cbn [size_loop]; next_test; reflexivity. Qed.

Lemma read_size_size_small x l p : x < 128 -> read_size_size (x :: l, p) = EOk ((0, x), (l, p + 1)).
Proof.
  intros H. unfold read_size_size. rewrite r_u8_cons. estep.
  rewrite size_loop_small by exact H. estep. rewrite N.mod_small by exact H. reflexivity.
Qed.

Lemma int_of_u64_small x : x < 9223372036854775808 -> int_of_u64 x = Z.of_N x.
Proof. intros H. unfold int_of_u64. now next_test. Qed.

Lemma zeros_len n : lenN (zeros n) = N.of_nat n.
Proof. unfold zeros, lenN. now rewrite repeat_length. Qed.

(* descriptor decoders on the encoder's output *)
Lemma decode_dcd_ok dc rest p maxNr :
  lenN dc <= 100 -> (Z.of_N (dcd_size dc) + 2 <= maxNr)%Z ->
  decode_dcd maxNr (desc_size (dcd_size dc) 0 ++ 64 :: be32 (21 * 16777216) ++ be32 0 ++ be32 0
                    ++ dsi_bytes dc ++ rest, p)
  = EOk ((2 + dcd_size dc, dc), (rest, p + 1 + dcd_size dc)).
Proof.
  intros Hn Hm. unfold decode_dcd, dsi_bytes, dcd_size in *.
  rewrite !desc_size_0, !N.mod_small by lia.
  cbn [app]. rewrite read_size_size_small by lia. estep.
  unfold exceeds, u64. rewrite N.mod_small by lia. next_test.
  cbn [snd]. rewrite r_u8_cons. estep.
  rewrite !r_u32_be32 by lia. estep. cbn [snd].
  rewrite int_of_u64_small by lia. next_test. next_test.
  rewrite r_u8_cons. estep. change (negb (5 =? 5)) with false. cbv iota.
  rewrite read_size_size_small by lia. estep.
  rewrite N.mod_small by lia. next_test.
  rewrite r_take_app by reflexivity. estep. cbn [snd]. next_test.
  apply f_equal. apply f_equal2; apply f_equal2; (reflexivity || lia).
Qed.

Lemma decode_es_ok dc rest p :
  lenN dc <= 100 ->
  decode_es (es_bytes dc ++ rest, p) = EOk ((2 + es_size dc, dc), (rest, p + 2 + es_size dc)).
Proof.
  intros Hn. unfold decode_es, es_bytes, dcd_bytes, slc_bytes.
  assert (Hes : es_size dc = 23 + lenN dc) by (unfold es_size, dcd_size; lia).
  assert (Hds : dcd_size dc = 15 + lenN dc) by (unfold dcd_size; lia).
  rewrite <- !app_assoc. cbn [app]. rewrite r_u8_cons. estep. change (negb (3 =? 3)) with false. cbv iota.
  rewrite (desc_size_0 (es_size dc)), (N.mod_small (es_size dc)) by lia.
  cbn [app]. rewrite read_size_size_small by lia. estep. cbn [snd].
  rewrite r_u16_be16 by lia. estep. rewrite r_u8_cons. estep.
  change (0 / 128 =? 1) with false. change ((0 / 64) mod 2 =? 1) with false. change ((0 / 32) mod 2 =? 1) with false.
  estep. cbn [snd].
  rewrite int_of_u64_small by lia. next_test.
  rewrite r_u8_cons. estep. change (4 =? 3) with false. change (negb (4 =? 4)) with false. cbv iota.
  rewrite decode_dcd_ok by lia. estep. cbn [snd]. next_test.
  rewrite r_u8_cons. estep. change (negb (6 =? 6)) with false. cbv iota.
  rewrite desc_size_0. change (1 mod 128) with 1. cbn [app].
  rewrite read_size_size_small by lia. estep.
  unfold exceeds, u64. change ((1 + 0 + 1 + 1) mod 18446744073709551616) with 3. next_test.
  rewrite r_u8_cons. estep. change (1 <? 1) with false. estep. cbn [snd].
  change (lenN (@nil N)) with 0. next_test. next_test.
  cbn [negb]. apply f_equal. apply f_equal2; apply f_equal2; (reflexivity || lia).
Qed.

Lemma list_eqb_refl l : list_eqb l l = true.
Proof.
  unfold list_eqb. rewrite N.eqb_refl. cbn [andb].
  induction l as [|x t IH]; [reflexivity|]. cbn [combine forallb]. now rewrite N.eqb_refl, IH.
Qed.

Lemma decode_box_header_ok size name body rest :
  8 < size -> size < 4294967296 -> lenN name = 4 -> lenN body = size - 8 ->
  decode_box_header (be32 size ++ name ++ body ++ rest) = EOk (name, size, body, rest).
Proof.
  intros H8 H32 Hname Hbody. unfold decode_box_header.
  rewrite !lenN_app. change (lenN (be32 size)) with 4. next_test.
  rewrite r_u32_be32 by exact H32. estep. rewrite r_take_app by exact Hname. estep.
  do 4 next_test. cbn [fst]. rewrite lenN_app. next_test.
  rewrite <- Hbody. rewrite firstn_lenN_app, skipn_lenN_app. reflexivity.
Qed.

Lemma es_bytes_len dc : lenN (es_bytes dc) = 2 + es_size dc.
Proof.
  unfold es_bytes, dcd_bytes, dsi_bytes, slc_bytes, es_size, dcd_size.
  rewrite !desc_size_0. unfold be16, be32.
  rewrite !lenN_app, !lenN_cons, !lenN_nil. lia.
Qed.

Lemma esds_box_len dc : lenN (esds_box dc) = esds_size dc.
Proof.
  unfold esds_box. rewrite !lenN_app, es_bytes_len. unfold esds_size, be32, fourcc_esds.
  rewrite !lenN_cons, !lenN_nil. lia.
Qed.

Lemma entry_fields_len cc ss rate tail :
  lenN (zeros 6 ++ be16 1 ++ zeros 8 ++ be16 cc ++ be16 ss ++ zeros 4 ++ be32 (rate * 65536) ++ tail)
  = 28 + lenN tail.
Proof. rewrite !lenN_app, !zeros_len. unfold be16, be32. rewrite !lenN_cons, !lenN_nil. lia. Qed.

Lemma entry_roundtrip cc ss rate dc :
  cc < 65536 -> ss < 65536 -> rate < 65536 -> lenN dc <= 100 ->
  decode_entry (mp4a_box cc ss rate dc) = EOk (mkEntry 1 cc ss rate dc).
Proof.
  intros Hc Hs Hr Hn. unfold decode_entry, mp4a_box.
  assert (Hes : es_size dc = 23 + lenN dc) by (unfold es_size, dcd_size; lia).
  assert (Hq : esds_size dc = 37 + lenN dc) by (unfold esds_size; lia).
  assert (Hm : mp4a_size dc = 73 + lenN dc) by (unfold mp4a_size; lia).
  pose proof (decode_box_header_ok (mp4a_size dc) fourcc_mp4a
    (zeros 6 ++ be16 1 ++ zeros 8 ++ be16 cc ++ be16 ss ++ zeros 4 ++ be32 (rate * 65536) ++ esds_box dc) []) as Hh.
  rewrite app_nil_r in Hh. rewrite Hh by (try reflexivity; rewrite ?entry_fields_len, ?esds_box_len; lia). clear Hh.
  estep. rewrite list_eqb_refl. cbn [negb]. estep.
  rewrite r_take_app by apply zeros_len. estep.
  rewrite r_u16_be16 by lia. estep.
  rewrite r_take_app by apply zeros_len. estep.
  rewrite r_u16_be16 by exact Hc. estep.
  rewrite r_u16_be16 by exact Hs. estep.
  rewrite r_take_app by apply zeros_len. estep.
  rewrite r_u32_be32 by lia. estep. cbn [fst].
  rewrite esds_box_len. next_test.
  unfold esds_box.
  pose proof (decode_box_header_ok (esds_size dc) fourcc_esds (be32 0 ++ es_bytes dc) []) as Hh.
  rewrite app_nil_r in Hh.
  rewrite Hh by (try reflexivity; rewrite ?lenN_app, ?es_bytes_len; change (lenN (be32 0)) with 4; lia). clear Hh.
  estep. rewrite list_eqb_refl. cbn [negb]. estep.
  rewrite r_u32_be32 by lia. estep.
  rewrite <- (app_nil_r (es_bytes dc)). rewrite decode_es_ok by exact Hn. estep.
  next_test. f_equal. f_equal. rewrite N.div_mul by discriminate. reflexivity.
Qed.

(* SetAACDescriptor *)
Lemma freq_field_length f : (length (freq_field f) <= 28)%nat.
Proof.
  unfold freq_field. destruct (index_of_freq f); rewrite ?app_length, !to_bits_length; lia.
Qed.

(* at most 5 + 28 + 4 + 28 + 5 + 3 bits, padded to whole bytes *)
Lemma asc_bytes_short a : lenN (pack (flush (asc_bits a))) <= 100.
Proof.
  pose proof (f_equal (@length bool) (unpack_pack_flush (asc_bits a))) as H.
  rewrite unpack_length, app_length, repeat_length in H.
  pose proof (pad_len_lt (length (asc_bits a))) as Hp.
  assert (length (asc_bits a) <= 73)%nat.
  { rewrite asc_bits_eq. pose proof (freq_field_length (a_freq a)). pose proof (freq_field_length (a_ext a)).
    destruct (_ || _); rewrite !app_length, !to_bits_length; cbn [length]; lia. }
  unfold lenN. lia.
Qed.

Definition entry_freq_ok (ot : N) (f : Z) : bool :=
  ((ot =? AAClc) || (ot =? HEAACv1) || (ot =? HEAACv2))
  && (0 <=? f)%Z && (if ot =? AAClc then (f <? 16777216)%Z else (f <? 8388608)%Z).

Lemma set_aac_asc_canonical ot f : entry_freq_ok ot f = true -> canonical (set_aac_asc ot f) = true.
Proof.
  unfold entry_freq_ok. intros H. apply canonical_iff.
  assert (Hot : asc_ot_ok ot) by (unfold asc_ot_ok, AAClc, HEAACv1, HEAACv2 in *; lia).
  unfold set_aac_asc, freq_ok.
  destruct Hot as [-> | [-> | ->]]; cbn -[Z.mul] in *; unfold asc_ot_ok; repeat split; try tauto; lia.
Qed.

Lemma set_aac_chan_small ot f : a_chan (set_aac_asc ot f) < 65536.
Proof. unfold set_aac_asc. destruct (ot =? HEAACv1); [reflexivity|]. destruct (ot =? HEAACv2); reflexivity. Qed.

(* what SetAACDescriptor adds to stsd: the entry around the encoded configuration, whose fields are in
   range and whose DecSpecificInfo bytes decode to the configuration *)
Lemma set_aac_descriptor_eq ot f :
  entry_freq_ok ot f = true ->
  let a := set_aac_asc ot f in
  let dc := pack (flush (asc_bits a)) in
  set_aac_descriptor ot f = Ok (mp4a_box (a_chan a) 16 (uint16_of_int f) dc)
  /\ uint16_of_int f < 65536 /\ decode_asc dc = Ok a.
Proof.
  intros H a dc. pose proof (set_aac_asc_canonical ot f H) as Hc.
  unfold set_aac_descriptor. fold a. rewrite (canonical_encode a Hc). cbn [rbind].
  repeat split; [unfold uint16_of_int; lia|now apply decode_asc_encoded].
Qed.

(* the full path: SetAACDescriptor -> encoded mp4a entry -> DecodeBox -> esds -> DecSpecificInfo ->
   DecodeAudioSpecificConfig returns the configuration that was built; the entry's own fields
   come back as written (sample rate: the uint16 conversion of the frequency) *)
Lemma sample_entry ot f :
  entry_freq_ok ot f = true ->
  exists bs dc,
    set_aac_descriptor ot f = Ok bs
    /\ decode_entry bs = EOk (mkEntry 1 (a_chan (set_aac_asc ot f)) 16 (uint16_of_int f) dc)
    /\ entry_asc bs = EOk (set_aac_asc ot f).
Proof.
  intros H. destruct (set_aac_descriptor_eq ot f H) as (Hs & Hr & Hd).
  eexists. eexists. split; [exact Hs|]. unfold entry_asc.
  rewrite entry_roundtrip by (apply set_aac_chan_small || apply asc_bytes_short || assumption || reflexivity).
  split; [reflexivity|]. cbn [ebind e_dc]. now rewrite Hd.
Qed.

(* the rate field: exact below 65536 ... *)
Lemma entry_rate_exact f : (0 <= f < 65536)%Z -> Z.of_N (uint16_of_int f) = f.
Proof. intros H. unfold uint16_of_int. rewrite Z.mod_small by lia. lia. Qed.

(* ... refuted above: the table frequencies 88200 and 96000 do not survive *)
Lemma entry_rate_refuted :
  exists f bs e, In f table_freqs /\ set_aac_descriptor AAClc f = Ok bs /\ decode_entry bs = EOk e
                 /\ Z.of_N (e_rate e) <> f.
Proof.
  exists 88200%Z.
  eexists. eexists. split; [|split; [vm_compute; reflexivity|split; [vm_compute; reflexivity|]]].
  - unfold table_freqs, frequency_table. cbn [map snd In]. tauto.
  - cbn [e_rate]. discriminate.
Qed.

(* the slice-reader decoders (DecodeBoxSR path) *)
Lemma decode_box_header_sr_ok size name rest p :
  8 <= size -> size < 4294967296 -> lenN name = 4 ->
  decode_box_header_sr (be32 size ++ name ++ rest, p) = EOk (name, size, (rest, p + 4 + 4)).
Proof.
  intros H8 H32 Hname. unfold decode_box_header_sr.
  rewrite r_u32_be32 by exact H32. estep. rewrite r_take_app by exact Hname. estep.
  do 3 next_test. reflexivity.
Qed.

Lemma entry_roundtrip_sr cc ss rate dc :
  cc < 65536 -> ss < 65536 -> rate < 65536 -> lenN dc <= 100 ->
  decode_entry_sr (mp4a_box cc ss rate dc) = EOk (mkEntry 1 cc ss rate dc).
Proof.
  intros Hc Hs Hr Hn. unfold decode_entry_sr, mp4a_box.
  assert (Hes : es_size dc = 23 + lenN dc) by (unfold es_size, dcd_size; lia).
  assert (Hq : esds_size dc = 37 + lenN dc) by (unfold esds_size; lia).
  assert (Hm : mp4a_size dc = 73 + lenN dc) by (unfold mp4a_size; lia).
  rewrite decode_box_header_sr_ok by (try reflexivity; lia).
  estep. rewrite list_eqb_refl. cbn [negb fst].
  rewrite entry_fields_len, esds_box_len. next_test.
  rewrite r_take_app by apply zeros_len. estep.
  rewrite r_u16_be16 by lia. estep.
  rewrite r_take_app by apply zeros_len. estep.
  rewrite r_u16_be16 by exact Hc. estep.
  rewrite r_u16_be16 by exact Hs. estep.
  rewrite r_take_app by apply zeros_len. estep.
  rewrite r_u32_be32 by lia. estep. next_test.
  unfold esds_box.
  rewrite decode_box_header_sr_ok by (try reflexivity; lia).
  estep. rewrite list_eqb_refl. cbn [negb fst].
  rewrite lenN_app, es_bytes_len. change (lenN (be32 0)) with 4. next_test. cbv zeta.
  (* the payload slice is the whole rest of the entry *)
  replace (N.to_nat (esds_size dc - 8)) with (N.to_nat (lenN (be32 0 ++ es_bytes dc)))
    by (rewrite lenN_app, es_bytes_len; change (lenN (be32 0)) with 4; lia).
  rewrite <- (app_nil_r (be32 0 ++ es_bytes dc)) at 2. rewrite firstn_lenN_app.
  rewrite r_u32_be32 by lia. estep.
  rewrite <- (app_nil_r (es_bytes dc)). rewrite decode_es_ok by exact Hn. estep.
  next_test. f_equal. f_equal. rewrite N.div_mul by discriminate. reflexivity.
Qed.

Lemma sample_entry_sr ot f :
  entry_freq_ok ot f = true ->
  exists bs dc,
    set_aac_descriptor ot f = Ok bs
    /\ decode_entry_sr bs = EOk (mkEntry 1 (a_chan (set_aac_asc ot f)) 16 (uint16_of_int f) dc)
    /\ entry_asc_sr bs = EOk (set_aac_asc ot f).
Proof.
  intros H. destruct (set_aac_descriptor_eq ot f H) as (Hs & Hr & Hd).
  eexists. eexists. split; [exact Hs|]. unfold entry_asc_sr.
  rewrite entry_roundtrip_sr by (apply set_aac_chan_small || apply asc_bytes_short || assumption || reflexivity).
  split; [reflexivity|]. cbn [ebind e_dc]. now rewrite Hd.
Qed.
