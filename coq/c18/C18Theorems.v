(* C18Theorems.v — the property theorems of C18 and nothing else.  Each is closed by
   `exact <lemma>` and followed by Print Assumptions (audited by ./check on every run). *)
From V.lib Require Import Base.
From V.c18 Require Import C18Model C18AscProofs C18AdtsProofs C18EntryModel C18EntryProofs C18TieProofs C18HistModel C18HistProofs C18DescModel C18DescProofs C18RangeProofs.

(* DecodeAudioSpecificConfig inverts Encode on the whole supported domain: object types 2/5/29,
   all 16 channel configurations, every sampling / extension frequency in 0 .. 2^24-1 (the 13 table
   values go through the 4-bit index, all others through the 24-bit escape), flags as implied by
   the object type.  General proof at the bit level, no enumeration. *)
Theorem C18_asc_roundtrip :
  forall a : asc, canonical a = true -> rbind (encode_asc a) decode_asc = Ok a.
Proof. exact asc_roundtrip. Qed.
Print Assumptions C18_asc_roundtrip.

Example C18_asc_roundtrip_sat_he :
  canonical (mkAsc HEAACv1 2 24000%Z 48000%Z true false) = true.
Proof. reflexivity. Qed.
Example C18_asc_roundtrip_sat_explicit :
  canonical (mkAsc HEAACv2 1 12345%Z 16777215%Z true true) = true.
Proof. reflexivity. Qed.

(* FrequencyTable and ReverseFrequencies (two separately written Go maps) are mutually inverse *)
Theorem C18_tables_inverse :
  forall (i : N) (f : Z), freq_of_index i = Some f <-> index_of_freq f = Some i.
Proof. exact tables_inverse. Qed.
Print Assumptions C18_tables_inverse.

(* the table part of the domain (3 x 16 x 13 x 13 configurations; the bound is the statement), as the
   executable check asc_roundtrip_ok: the 13 table values lie below 2^24, so these configurations are
   canonical and C18_asc_roundtrip applies *)
Theorem C18_asc_table_enum :
  forall (ot ch : N) (f e : Z),
    In ot [AAClc; HEAACv1; HEAACv2] -> ch < 16 -> In f table_freqs -> In e table_freqs ->
    asc_roundtrip_ok (asc_of ot ch f e) = true.
Proof. exact asc_table_enum. Qed.
Print Assumptions C18_asc_table_enum.

(* DecodeADTSHeader inverts ADTSHeader.Encode: every profile 1..4, all 16 frequency indices, all 8
   channel configurations, every payload length 0..8184 (13-bit frame length incl. the 7 header
   bytes), every 11-bit fullness value, whatever follows the header.  General proof (in particular
   general in the length), no enumeration. *)
Theorem C18_adts_roundtrip :
  forall (h : adts) (rest : list N),
    adts_canonical h = true -> decode_adts (encode_adts h ++ rest) = Ok (h, 0%Z).
Proof. exact adts_roundtrip. Qed.
Print Assumptions C18_adts_roundtrip.

Example C18_adts_roundtrip_sat : adts_canonical (mkAdts 0 2 3 2 7 8184 2047) = true.
Proof. reflexivity. Qed.

(* with up to 187 junk bytes in front that contain no earlier sync word (junk may contain ff bytes, runs
   of ff, and may end in ff: the sync2 re-use path), the decoder returns the header and reports the
   junk length as the offset of the sync word.  Induction over the search iterations. *)
Theorem C18_adts_sync_offset :
  forall (junk : list N) (h : adts) (rest : list N),
    (length junk <= 187)%nat -> bytes_ok junk = true -> no_sync_in junk = true ->
    adts_canonical h = true ->
    decode_adts (junk ++ encode_adts h ++ rest) = Ok (h, Z.of_nat (length junk)).
Proof. exact adts_sync_offset. Qed.
Print Assumptions C18_adts_sync_offset.

Example C18_adts_sync_offset_sat :
  let junk := [0; 255; 255; 255; 247; 71; 255; 254; 255] in
  (length junk <= 187)%nat /\ bytes_ok junk = true /\ no_sync_in junk = true.
Proof. cbv zeta. repeat split. cbn [length]. lia. Qed.

(* for ANY input whose first sync word (naive position-by-position scan) lies within the first 188
   bytes, the search stops exactly there: the reported offset is the position at which the sync word
   was found, whatever header follows *)
Theorem C18_adts_sync_first :
  forall (data : list N) (p : nat),
    bytes_ok data = true -> first_sync data = Some p -> (p <= 187)%nat ->
    exists x T,
      data = firstn p data ++ 255 :: x :: T /\ is_sync2 x = true /\
      sync_loop ts_packet_size (rinit data) 0 0%Z = (true, x, Z.of_nat p, mkR (unpack T) false).
Proof. exact sync_first. Qed.
Print Assumptions C18_adts_sync_first.

(* NewADTSHeader yields a canonical header carrying the index of the requested table frequency *)
Theorem C18_new_adts_canonical :
  forall (f : Z) (ch pl : N) (h : adts),
    new_adts f ch AAClc pl = Ok h -> ch < 8 -> pl <= 8184 ->
    adts_canonical h = true /\ freq_of_index (h_sfi h) = Some f.
Proof. exact new_adts_canonical. Qed.
Print Assumptions C18_new_adts_canonical.

(* the executable check adts_roundtrip_ok on the profile x index x channel grid, for every payload length
   and for every junk length (the bounds are in the statements): instances of C18_adts_sync_offset *)
Theorem C18_adts_grid_enum :
  forall ot sfi ch pl bf : N,
    1 <= ot <= 4 -> sfi < 16 -> ch < 8 -> In pl grid_plens -> In bf grid_bfs ->
    adts_roundtrip_ok [] (mkAdts 0 ot sfi ch 7 pl bf) [] = true.
Proof. exact adts_grid_enum. Qed.
Print Assumptions C18_adts_grid_enum.

Theorem C18_adts_length_enum :
  forall pl : N, pl <= 8184 -> adts_roundtrip_ok [] (len_header pl) [] = true.
Proof. exact adts_length_enum. Qed.
Print Assumptions C18_adts_length_enum.

Theorem C18_adts_junk_enum :
  forall n : nat, (n <= 187)%nat ->
    junk_ok (junk_zero n) = true /\ junk_ok (junk_ff n) = true /\ junk_ok (junk_zero_ff n) = true.
Proof. exact adts_junk_enum. Qed.
Print Assumptions C18_adts_junk_enum.

(* the window is sharp: 188 zero bytes of junk are not searched through (outside the property's domain) *)
Theorem C18_adts_junk_188_refused :
  decode_adts (junk_zero 188 ++ encode_adts (len_header 371)) = Err.
Proof. exact adts_junk_188_refused. Qed.
Print Assumptions C18_adts_junk_188_refused.

(* ADTSHeader.Frequency() returns uint16.  Exact under the guard f < 65536 ... *)
Theorem C18_adts_frequency_exact :
  forall (f : Z) (ch pl : N) (h : adts),
    new_adts f ch AAClc pl = Ok h -> (f < 65536)%Z -> Z.of_N (adts_frequency h) = f.
Proof. exact adts_frequency_exact. Qed.
Print Assumptions C18_adts_frequency_exact.

(* ... and refuted without it: the table frequencies 88200 / 96000 come back as 22664 / 30464
   (known finding C18-F2, replayed on the real code by the search) *)
Theorem C18_adts_frequency_refuted :
  exists f h, new_adts f 2 AAClc 0 = Ok h /\ Z.of_N (adts_frequency h) <> f.
Proof. exact adts_frequency_refuted. Qed.
Print Assumptions C18_adts_frequency_refuted.

(* consequences: distinct canonical configurations / headers never share an encoding *)
Theorem C18_encode_asc_injective :
  forall a b : asc, canonical a = true -> canonical b = true -> encode_asc a = encode_asc b -> a = b.
Proof. exact encode_asc_injective. Qed.
Print Assumptions C18_encode_asc_injective.

Theorem C18_encode_adts_injective :
  forall a b : adts, adts_canonical a = true -> adts_canonical b = true -> encode_adts a = encode_adts b -> a = b.
Proof. exact encode_adts_injective. Qed.
Print Assumptions C18_encode_adts_injective.

(* the mp4a entry CreateAudioSampleEntryBox/CreateEsdsBox build around ANY decoder configuration of
   up to 100 bytes decodes (DecodeBox -> DecodeAudioSampleEntry -> DecodeEsds -> DecodeESDescriptor ->
   DecoderConfigDescriptor -> DecSpecificInfo) to the same fields and the same DecConfig bytes *)
Theorem C18_entry_roundtrip :
  forall (cc ss rate : N) (dc : list N),
    cc < 65536 -> ss < 65536 -> rate < 65536 -> lenN dc <= 100 ->
    decode_entry (mp4a_box cc ss rate dc) = EOk (mkEntry 1 cc ss rate dc).
Proof. exact entry_roundtrip. Qed.
Print Assumptions C18_entry_roundtrip.

(* SetAACDescriptor(ot, f) -> encoded entry -> decoded entry -> DecodeAudioSpecificConfig returns the
   configuration that was built, for object types 2/5/29 and every frequency whose (doubled, for the
   HE types) value fits the 24-bit escape; the entry's rate field holds uint16(f) *)
Theorem C18_sample_entry :
  forall (ot : N) (f : Z),
    entry_freq_ok ot f = true ->
    exists bs dc,
      set_aac_descriptor ot f = Ok bs
      /\ decode_entry bs = EOk (mkEntry 1 (a_chan (set_aac_asc ot f)) 16 (uint16_of_int f) dc)
      /\ entry_asc bs = EOk (set_aac_asc ot f).
Proof. exact sample_entry. Qed.
Print Assumptions C18_sample_entry.

Example C18_sample_entry_sat : entry_freq_ok HEAACv1 24000%Z = true /\ entry_freq_ok AAClc 96000%Z = true.
Proof. split; reflexivity. Qed.

(* the same through the slice-reader decoders (DecodeBoxSR / DecodeAudioSampleEntrySR / DecodeEsdsSR),
   the path DecodeFileSR takes *)
Theorem C18_entry_roundtrip_sr :
  forall (cc ss rate : N) (dc : list N),
    cc < 65536 -> ss < 65536 -> rate < 65536 -> lenN dc <= 100 ->
    decode_entry_sr (mp4a_box cc ss rate dc) = EOk (mkEntry 1 cc ss rate dc).
Proof. exact entry_roundtrip_sr. Qed.
Print Assumptions C18_entry_roundtrip_sr.

Theorem C18_sample_entry_sr :
  forall (ot : N) (f : Z),
    entry_freq_ok ot f = true ->
    exists bs dc,
      set_aac_descriptor ot f = Ok bs
      /\ decode_entry_sr bs = EOk (mkEntry 1 (a_chan (set_aac_asc ot f)) 16 (uint16_of_int f) dc)
      /\ entry_asc_sr bs = EOk (set_aac_asc ot f).
Proof. exact sample_entry_sr. Qed.
Print Assumptions C18_sample_entry_sr.

(* the entry's 16.16 sample-rate field: exact under the guard f < 65536 ... *)
Theorem C18_entry_rate_exact :
  forall f : Z, (0 <= f < 65536)%Z -> Z.of_N (uint16_of_int f) = f.
Proof. exact entry_rate_exact. Qed.
Print Assumptions C18_entry_rate_exact.

(* ... refuted without it for a table frequency (88200 -> 22664; known finding C18-F1, replayed on the
   real code by the search) *)
Theorem C18_entry_rate_refuted :
  exists f bs e, In f table_freqs /\ set_aac_descriptor AAClc f = Ok bs /\ decode_entry bs = EOk e
                 /\ Z.of_N (e_rate e) <> f.
Proof. exact entry_rate_refuted. Qed.
Print Assumptions C18_entry_rate_refuted.

(* The model reads bits.Reader / bits.Writer as operations on bit lists.  C13Model holds the Go-level
   machines (value/n accumulators with the 64-bit wrap, byte positions, accumulated error).  The generic
   decoders instantiated with the C13 reader machine compute exactly what the bit-list instantiation
   computes, for every byte string (success, EOF and accumulated-error paths) ... *)
Theorem C18_reader_tie_asc :
  forall data : list N, bytes_ok data = true -> decode_asc_go data = decode_asc data.
Proof. exact decode_asc_tie. Qed.
Print Assumptions C18_reader_tie_asc.

Theorem C18_reader_tie_adts :
  forall data : list N, bytes_ok data = true -> decode_adts_go data = decode_adts data.
Proof. exact decode_adts_tie. Qed.
Print Assumptions C18_reader_tie_adts.

(* ... and the C13 writer machine running the encoders' Write calls (+ Flush for the configuration)
   emits the model's bytes *)
Theorem C18_writer_tie_asc :
  forall (a : asc) (bs : list N), encode_asc a = Ok bs -> go_write (asc_fields a) true = bs.
Proof. exact encode_asc_tie. Qed.
Print Assumptions C18_writer_tie_asc.

Theorem C18_writer_tie_adts :
  forall h : adts, go_write (adts_fields h) false = encode_adts h.
Proof. exact encode_adts_tie. Qed.
Print Assumptions C18_writer_tie_adts.

(* hence the property at machine level *)
Theorem C18_asc_roundtrip_machine :
  forall (a : asc) (bs : list N),
    canonical a = true -> encode_asc a = Ok bs ->
    go_write (asc_fields a) true = bs /\ decode_asc_go bs = Ok a.
Proof. exact asc_roundtrip_machine. Qed.
Print Assumptions C18_asc_roundtrip_machine.

Theorem C18_adts_sync_offset_machine :
  forall (junk : list N) (h : adts) (rest : list N),
    (length junk <= 187)%nat -> bytes_ok junk = true -> no_sync_in junk = true -> bytes_ok rest = true ->
    adts_canonical h = true ->
    decode_adts_go (junk ++ go_write (adts_fields h) false ++ rest) = Ok (h, Z.of_nat (length junk)).
Proof. exact adts_sync_offset_machine. Qed.
Print Assumptions C18_adts_sync_offset_machine.

(* "An AAC sample entry built from a configuration decodes back to that configuration" - for every
   entry of every history, whenever it is read.  A history is any list of operations: SetAACDescriptor on
   some track of some init segment (HBuild), Encode of an entry built so far (HEncEntry), Encode of a whole
   init segment (HEncInit), in any interleaving, of any length.  In the model an entry is a pure value, so
   the statements are immediate by induction over the operations; the real code (where an entry holds a
   []byte that CreateEsdsBox keeps without copying) is tied to hrun by the correspondence check over
   generated histories, and checked against the property directly by the history search.

   The i-th entry of the state any history reaches is the one its own (i-th successful) build made, and it
   decodes - DecodeBox and DecodeBoxSR paths - to the configuration of THAT build, whatever the other
   operations are *)
Theorem C18_entries_independent :
  forall (ops : list hop) (i : nat) (e : hentry),
    nth_error (fst (hrun ops [])) i = Some e ->
    nth_error (built ops) i = Some (he_ot e, he_f e)
    /\ set_aac_descriptor (he_ot e) (he_f e) = Ok (he_bytes e)
    /\ (entry_freq_ok (he_ot e) (he_f e) = true ->
        entry_asc (he_bytes e) = EOk (set_aac_asc (he_ot e) (he_f e))
        /\ entry_asc_sr (he_bytes e) = EOk (set_aac_asc (he_ot e) (he_f e))).
Proof. exact entries_independent. Qed.
Print Assumptions C18_entries_independent.

Example C18_entries_independent_sat :
  let ops := [HBuild 0 0 HEAACv1 24000%Z; HEncEntry 0; HBuild 0 1 AAClc 12345%Z; HBuild 1 0 42 48000%Z;
              HEncInit 0; HBuild 1 0 HEAACv2 22050%Z; HEncEntry 0] in
  built ops = [(HEAACv1, 24000%Z); (AAClc, 12345%Z); (HEAACv2, 22050%Z)]
  /\ map (fun e => entry_asc (he_bytes e)) (fst (hrun ops []))
     = [EOk (set_aac_asc HEAACv1 24000%Z); EOk (set_aac_asc AAClc 12345%Z); EOk (set_aac_asc HEAACv2 22050%Z)].
Proof. split; vm_compute; reflexivity. Qed.

(* operations that follow never change an entry that exists *)
Theorem C18_history_entry_stable :
  forall (pre post : list hop) (st : list hentry) (i : nat) (e : hentry),
    nth_error (fst (hrun pre st)) i = Some e ->
    nth_error (fst (hrun (pre ++ post) st)) i = Some e.
Proof. exact history_entry_stable. Qed.
Print Assumptions C18_history_entry_stable.

(* an Encode of entry i observed anywhere inside a history shows the bytes entry i has at its end *)
Theorem C18_history_encode_obs :
  forall (pre post : list hop) (i : nat) (st : list hentry) (b : list N),
    nth_error (snd (hrun (pre ++ HEncEntry i :: post) st)) (length pre) = Some (OBytes [b]) ->
    exists e, nth_error (fst (hrun (pre ++ HEncEntry i :: post) st)) i = Some e /\ he_bytes e = b.
Proof. exact history_encode_obs. Qed.
Print Assumptions C18_history_encode_obs.

(* k canonical configurations encoded one after the other into ONE writer and decoded by k calls of
   DecodeAudioSpecificConfig on ONE reader (each call its own bits.Reader) come back one by one, each as
   itself, each call consuming exactly its own bytes - whatever was encoded before or after, for any k *)
Theorem C18_asc_stream_independent :
  forall (l : list asc) (rest : list N),
    forallb canonical l = true ->
    decode_asc_stream (length l) (encode_asc_stream l ++ rest) = asc_stream_expect l rest.
Proof. exact asc_stream_independent. Qed.
Print Assumptions C18_asc_stream_independent.

Theorem C18_asc_stream_values :
  forall (l : list asc) (rest : list N),
    forallb canonical l = true ->
    map fst (decode_asc_stream (length l) (encode_asc_stream l ++ rest)) = map Ok l.
Proof. exact asc_stream_values. Qed.
Print Assumptions C18_asc_stream_values.

Example C18_asc_stream_sat :
  forallb canonical [mkAsc HEAACv2 1 12345%Z 16777215%Z true true; mkAsc AAClc 7 48000%Z 0%Z false false;
                     mkAsc HEAACv1 2 24000%Z 48000%Z true false] = true.
Proof. reflexivity. Qed.

(* the DecodeAudioSpecificConfig of C18Model is the first component of the state-returning one *)
Theorem C18_asc_state_decoder_same :
  forall s : rstate, fst (decode_asc_gs rstate rd rerr s) = decode_asc_g rstate rd rerr s.
Proof. exact decode_asc_gs_fst. Qed.
Print Assumptions C18_asc_state_decoder_same.

(* k ADTS headers, each preceded by up to 187 junk bytes without a sync word, back to back: k calls of
   DecodeADTSHeader on one reader return each header with its own junk length as offset (a call is taken to
   consume offset + HeaderLength bytes: compared with the real reader on every run) *)
Theorem C18_adts_stream_independent :
  forall (l : list (list N * adts)) (rest : list N),
    forallb adts_item_ok l = true ->
    decode_adts_stream (length l) (encode_adts_stream l ++ rest) = adts_stream_expect l rest.
Proof. exact adts_stream_independent. Qed.
Print Assumptions C18_adts_stream_independent.

Example C18_adts_stream_sat :
  forallb adts_item_ok [([0; 255; 255; 247; 71; 255], mkAdts 0 2 3 2 7 8184 2047); ([], mkAdts 0 1 0 7 7 0 0);
                        ([255], mkAdts 0 4 15 1 7 371 1000)] = true.
Proof. reflexivity. Qed.

(* C18DescModel models mp4/descriptors.go completely (slice reader with accumulated error, size fields of
   any width, optional ES fields, further descriptors of any tag kept as RawDescriptor,
   DecoderConfigDescriptors nested to any depth, UnknownData recovery).  mp4.DecodeDescriptor inverts
   EncodeSW on EVERY well-formed descriptor value: any nesting depth, any number of contained descriptors,
   size fields of 1..255 bytes on every level, whatever follows in the reader *)
Theorem C18_descriptor_roundtrip :
  forall (d : desc) (rest : list N) (maxNr : Z),
    desc_wf d = true -> (Z.of_N (desc_sizesize d) <= maxNr)%Z ->
    decode_descriptor maxNr (encode_desc d ++ rest) = (Ok d, mkSl rest (desc_sizesize d) false).
Proof. exact descriptor_roundtrip. Qed.
Print Assumptions C18_descriptor_roundtrip.

Example C18_descriptor_roundtrip_sat :
  desc_wf (DDcd 3 64 21 6144 128000 96000
             [DDsi 2 [18; 16]; DRaw 254 1 [1; 2; 3]; DDcd 0 1 2 3 4 5 [DSlc 1 2 [9]] [7]] []) = true.
Proof. reflexivity. Qed.

(* mp4.DecodeESDescriptor inverts ESDescriptor.EncodeSW on every well-formed ES descriptor: optional
   dependsOn / URL / OCR fields, the DecoderConfigDescriptor, an SLConfigDescriptor or not, any further
   descriptors (unknown tags are kept), at most one trailing unknown byte *)
Theorem C18_es_descriptor_roundtrip :
  forall (e : esd) (rest : list N),
    es_wf e = true ->
    decode_es_descriptor (encode_es e ++ rest) = (Ok e, mkSl rest (es_sizesize e) false).
Proof. exact es_descriptor_roundtrip. Qed.
Print Assumptions C18_es_descriptor_roundtrip.

Example C18_es_descriptor_roundtrip_sat :
  es_wf (mkEsd 3 1 224 7 [104; 116; 116; 112] 9
           (DDcd 3 64 21 0 0 0 [DDsi 3 [43; 146; 8; 0]; DRaw 9 0 []] [])
           [DSlc 3 2 []; DRaw 127 2 [1; 2]] [0]) = true.
Proof. reflexivity. Qed.

(* DecodeEsds on the body EsdsBox.Encode writes *)
Theorem C18_esds_body_roundtrip :
  forall (vf : N) (e : esd),
    vf < 4294967296 -> es_wf e = true -> decode_esds_body (be32 vf ++ encode_es e) = Ok (vf, e).
Proof. exact esds_body_roundtrip. Qed.
Print Assumptions C18_esds_body_roundtrip.

(* whatever well-formed shape the esds has (e.g. the 4-byte size fields other muxers write, extra
   descriptors), the configuration it carries as DecoderSpecificInfo is read back:
   esds -> ESDescriptor -> DecoderConfigDescriptor -> DecSpecificInfo -> DecodeAudioSpecificConfig *)
Theorem C18_esds_config_roundtrip :
  forall (vf : N) (e : esd) (a : asc),
    vf < 4294967296 -> es_wf e = true -> canonical a = true -> es_carries e a = true ->
    esds_asc (be32 vf ++ encode_es e) = Ok a.
Proof. exact esds_config_roundtrip. Qed.
Print Assumptions C18_esds_config_roundtrip.

Example C18_esds_config_roundtrip_sat :
  let a := mkAsc HEAACv1 2 24000%Z 48000%Z true false in
  let e := mkEsd 3 1 0 0 [] 0 (DDcd 3 64 21 0 0 0 [DDsi 3 [43; 17; 136; 0]; DRaw 9 0 []] []) [DSlc 3 2 []] [] in
  canonical a = true /\ es_wf e = true /\ es_carries e a = true.
Proof. repeat split; vm_compute; reflexivity. Qed.

(* the esds of the entry SetAACDescriptor builds is the encoding of one such value, and the general decoder
   reads the configuration back from it (ties C18EntryModel's fixed-shape encoder to the general layer) *)
Theorem C18_set_aac_esds_general :
  forall (ot : N) (f : Z),
    entry_freq_ok ot f = true ->
    exists dc, encode_asc (set_aac_asc ot f) = Ok dc
               /\ encode_es (aac_esd dc) = es_bytes dc
               /\ esds_asc (be32 0 ++ es_bytes dc) = Ok (set_aac_asc ot f).
Proof. exact set_aac_esds_general. Qed.
Print Assumptions C18_set_aac_esds_general.

(* "every ... configuration the library supports": the hypothesis `canonical` of C18_asc_roundtrip is not an
   assumption about the inputs the library meets - it holds of EVERY configuration DecodeAudioSpecificConfig
   returns, on any input whatsoever (arbitrary, malformed, foreign-encoder bytes) ... *)
Theorem C18_decode_asc_canonical :
  forall (data : list N) (a : asc), decode_asc data = Ok a -> canonical a = true.
Proof. exact decode_asc_canonical. Qed.
Print Assumptions C18_decode_asc_canonical.

(* ... so the round trip needs no hypothesis on decoder results: whatever the decoder accepted, the
   configuration it returned is encoded by Encode and read back as itself (decode ; encode ; decode = decode) *)
Theorem C18_decode_asc_reencode :
  forall (data : list N) (a : asc), decode_asc data = Ok a -> rbind (encode_asc a) decode_asc = Ok a.
Proof. exact decode_asc_reencode. Qed.
Print Assumptions C18_decode_asc_reencode.

Example C18_decode_asc_reencode_sat :
  (* a foreign encoding: 48000 Hz written through the 24-bit escape, trailing bits set *)
  decode_asc [23; 128; 93; 192; 23] = Ok (mkAsc AAClc 2 48000%Z 0%Z false false)
  /\ encode_asc (mkAsc AAClc 2 48000%Z 0%Z false false) = Ok [17; 144].
Proof. split; vm_compute; reflexivity. Qed.

(* and `canonical` is exactly the range of the decoder: the domain of C18_asc_roundtrip is neither smaller nor
   larger than the set of configurations the library can produce from bytes *)
Theorem C18_canonical_is_decoder_range :
  forall a : asc, canonical a = true <-> exists data, bytes_ok data = true /\ decode_asc data = Ok a.
Proof. exact canonical_is_decoder_range. Qed.
Print Assumptions C18_canonical_is_decoder_range.

(* every header DecodeADTSHeader returns (any input, any sync offset) that is MPEG-4, CRC-less and announces a
   frame of at least the 7 header bytes satisfies the hypothesis of C18_adts_roundtrip ... *)
Theorem C18_decode_adts_canonical :
  forall (data : list N) (h : adts) (off : Z),
    decode_adts data = Ok (h, off) -> h_id h = 0 -> h_hlen h = 7 -> h_plen h <= 8184 -> adts_canonical h = true.
Proof. exact decode_adts_canonical. Qed.
Print Assumptions C18_decode_adts_canonical.

(* ... hence re-encodes to bytes the decoder reads back as the same header at offset 0 *)
Theorem C18_decode_adts_reencode :
  forall (data : list N) (h : adts) (off : Z) (rest : list N),
    decode_adts data = Ok (h, off) -> h_id h = 0 -> h_hlen h = 7 -> h_plen h <= 8184 ->
    decode_adts (encode_adts h ++ rest) = Ok (h, 0%Z).
Proof. exact decode_adts_reencode. Qed.
Print Assumptions C18_decode_adts_reencode.

Example C18_decode_adts_reencode_sat :
  decode_adts [0; 255; 255; 241; 76; 128; 46; 127; 252; 33] = Ok (mkAdts 0 2 3 2 7 364 2047, 2%Z).
Proof. vm_compute; reflexivity. Qed.

(* the three guards are exactly what Encode cannot express; the payload guard is sharp: a frame length of 0 is
   accepted and reported as PayloadLength 65529 = uint16(0 - 7)  (malformed input, outside the property's domain) *)
Theorem C18_decode_adts_short_frame_wraps :
  exists data h off,
    bytes_ok data = true /\ decode_adts data = Ok (h, off) /\ h_id h = 0 /\ h_hlen h = 7 /\ h_plen h = 65529.
Proof. exact decode_adts_short_frame_wraps. Qed.
Print Assumptions C18_decode_adts_short_frame_wraps.
