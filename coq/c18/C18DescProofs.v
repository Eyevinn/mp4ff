(* C18DescProofs.v — the descriptor decoders of C18DescModel invert the encoders on every well-formed
   descriptor value: size fields of 1..255 bytes on every level (sizes below 2^32), optional ES fields,
   any number of further descriptors of any tag, DecoderConfigDescriptors nested to any depth, one
   trailing unknown byte. *)
From V.lib Require Import Base.
From V.c18 Require Import C18Model C18AscProofs C18EntryModel C18EntryProofs C18DescModel.

Lemma sr_u8_cons b l p : sr_u8 (mkSl (b :: l) p false) = (b, mkSl l (p + 1) false).
Proof. reflexivity. Qed.

Lemma sr_take_app x l p k :
  lenN x = k -> sr_take k (mkSl (x ++ l) p false) = (x, mkSl l (p + k) false).
Proof.
  intros <-. unfold sr_take. cbn [s_err s_rem s_pos]. rewrite lenN_app.
  replace (lenN x + lenN l <? lenN x) with false by (symmetry; apply N.ltb_ge; lia).
  rewrite firstn_lenN_app, skipn_lenN_app. reflexivity.
Qed.

Lemma sr_bytes_app x l p :
  sr_bytes (Z.of_N (lenN x)) (mkSl (x ++ l) p false) = (x, mkSl l (p + lenN x) false).
Proof.
  unfold sr_bytes. replace (Z.of_N (lenN x) <? 0)%Z with false by (symmetry; apply Z.ltb_ge; lia).
  rewrite N2Z.id. now apply sr_take_app.
Qed.

Lemma be_val_be16 v : v < 65536 -> be_val (be16 v) = v.
Proof. intros H. unfold be_val, be16. cbn [fold_left]. now apply be16_join. Qed.

Lemma be_val4 a b c d : be_val [a; b; c; d] = (a * 256 + b) * 65536 + (c * 256 + d).
Proof. unfold be_val. cbn [fold_left]. lia. Qed.

Lemma be_val_be32 v : v < 4294967296 -> be_val (be32 v) = v.
Proof. intros H. unfold be32. rewrite be_val4. now apply be32_join. Qed.

Lemma sr_u16_be16 v l p : v < 65536 -> sr_u16 (mkSl (be16 v ++ l) p false) = (v, mkSl l (p + 2) false).
Proof. intros H. unfold sr_u16. rewrite sr_take_app by reflexivity. now rewrite be_val_be16. Qed.

Lemma sr_u32_be32 v l p : v < 4294967296 -> sr_u32 (mkSl (be32 v ++ l) p false) = (v, mkSl l (p + 4) false).
Proof. intros H. unfold sr_u32. rewrite sr_take_app by reflexivity. now rewrite be_val_be32. Qed.

Lemma desc_size_len size sfs : lenN (desc_size size sfs) = N.of_nat sfs + 1.
Proof.
  induction sfs as [|n IH].
  - reflexivity.
  - cbn [desc_size]. rewrite lenN_cons. cbv zeta. rewrite IH. lia.
Qed.

(* a size field of sfs+1 bytes (any width up to 255 bytes) that is wide enough for the size *)
Definition fits (size sfs : N) : bool :=
  (sfs <=? 254) && (size <? 2 ^ (7 * (sfs + 1))) && (size <? 4294967296).

Lemma sz_step f tmp n acc b l p :
  128 <= tmp ->
  sz_loop (S f) tmp n acc (mkSl (b :: l) p false)
  = sz_loop f b (u8 (n + 1)) (u64 (acc * 128 + b mod 128)) (mkSl l (p + 1) false).
Proof.
  intros H. cbn [sz_loop]. replace (128 <=? tmp) with true by (symmetry; apply N.leb_le; exact H).
  rewrite sr_u8_cons. reflexivity.
Qed.

Lemma sz_done f tmp n acc s : tmp < 128 -> sz_loop f tmp n acc s = Ok (n, acc, s).
Proof.
  intros H. destruct f; cbn [sz_loop];
    replace (128 <=? tmp) with false by (symmetry; apply N.leb_gt; exact H); reflexivity.
Qed.

Lemma add128_mod x : x < 128 -> (x + 128) mod 128 = x.
Proof. intros H. lia. Qed.

Lemma pow7_succ k : 2 ^ (7 * N.of_nat (S k)) = 2 ^ (7 * N.of_nat k) * 128.
Proof. rewrite Nat2N.inj_succ, N.mul_succ_r, N.pow_add_r. reflexivity. Qed.

Lemma pow7_nz k : 2 ^ (7 * N.of_nat k) <> 0.
Proof. apply N.pow_nonzero. discriminate. Qed.

(* Q(k+1) * 128 + Q(k) mod 128 = Q(k)  for  Q(k) = size / 128^k *)
Lemma q_step size k :
  size / 2 ^ (7 * N.of_nat (S k)) * 128 + (size / 2 ^ (7 * N.of_nat k)) mod 128 = size / 2 ^ (7 * N.of_nat k).
Proof.
  rewrite pow7_succ. rewrite <- N.div_div by (try apply pow7_nz; discriminate).
  set (Q := size / 2 ^ (7 * N.of_nat k)). pose proof (N.div_mod' Q 128). lia.
Qed.

Lemma q_le size k : size / 2 ^ (7 * N.of_nat k) <= size.
Proof.
  pose proof (pow7_nz k) as Hz. pose proof (N.mul_div_le size _ Hz) as H.
  set (Q := size / 2 ^ (7 * N.of_nat k)) in *. nia.
Qed.

(* the loop of readSizeSize over the remaining bytes of writeDescriptorSize: positions pos .. 0 *)
Lemma sz_loop_run size rest : forall pos f tmp n p,
  (pos < f)%nat -> 128 <= tmp -> size < 4294967296 -> n + N.of_nat pos + 1 < 256 ->
  sz_loop f tmp n (size / 2 ^ (7 * N.of_nat (S pos))) (mkSl (desc_size size pos ++ rest) p false)
  = Ok (n + N.of_nat pos + 1, size, mkSl rest (p + N.of_nat pos + 1) false).
Proof.
  induction pos as [|q IH]; intros f tmp n p Hf Ht Hs Hn.
  - destruct f as [|f]; [lia|]. cbn [desc_size app]. rewrite sz_step by exact Ht.
    rewrite sz_done by (apply N.mod_lt; discriminate).
    rewrite N.mod_mod by discriminate. rewrite q_step.
    change (2 ^ (7 * N.of_nat 0)) with 1. rewrite N.div_1_r.
    unfold u8, u64. rewrite !N.mod_small by lia. apply f_equal; apply f_equal2; [apply f_equal2; lia | f_equal; lia].
  - destruct f as [|f]; [lia|]. cbn [desc_size app]. cbv zeta. rewrite sz_step by exact Ht.
    rewrite add128_mod by (apply N.mod_lt; discriminate).
    rewrite q_step.
    pose proof (q_le size (S q)) as Hle.
    unfold u8, u64. rewrite (N.mod_small (n + 1)) by lia.
    remember (size / 2 ^ (7 * N.of_nat (S q))) as Q eqn:EQ.
    rewrite (N.mod_small Q 18446744073709551616) by (clear EQ IH; lia). subst Q.
    rewrite IH; [|lia|apply N.le_add_l|exact Hs|lia].
    apply f_equal; apply f_equal2; [apply f_equal2; lia | f_equal; lia].
Qed.

Lemma read_size_ok size sfs rest p :
  fits size sfs = true ->
  read_size (mkSl (desc_size size (N.to_nat sfs) ++ rest) p false)
  = (Ok (sfs, size), mkSl rest (p + sfs + 1) false).
Proof.
  unfold fits. intros H. apply andb_prop in H. destruct H as [H Hz].
  apply andb_prop in H. destruct H as [Hs Hf].
  apply N.leb_le in Hs. apply N.ltb_lt in Hf. apply N.ltb_lt in Hz.
  unfold read_size.
  destruct (N.to_nat sfs) as [|q] eqn:Eq.
  - assert (sfs = 0) by lia. subst sfs. change (2 ^ (7 * (0 + 1))) with 128 in Hf.
    cbn [desc_size app]. change (2 ^ (7 * N.of_nat 0)) with 1. rewrite N.div_1_r.
    rewrite sr_u8_cons. rewrite sz_done by (apply N.mod_lt; discriminate).
    cbn [s_err]. rewrite N.mod_mod by discriminate. rewrite (N.mod_small size) by lia.
    apply f_equal2; [reflexivity | f_equal; lia].
  - assert (Hq : sfs = N.of_nat q + 1) by lia.
    assert (Hsmall : size / 2 ^ (7 * N.of_nat (S q)) < 128).
    { apply N.div_lt_upper_bound; [apply pow7_nz|].
      rewrite <- pow7_succ.
      replace (N.of_nat (S (S q))) with (sfs + 1) by lia. exact Hf. }
    cbn [desc_size app]. cbv zeta. rewrite sr_u8_cons. cbn [s_rem].
    rewrite (N.mod_small _ 128 Hsmall). rewrite add128_mod by exact Hsmall.
    rewrite sz_loop_run; [|clear Hsmall; rewrite app_length; pose proof (desc_size_len size q) as Hl; unfold lenN in Hl; lia
                          |apply N.le_add_l|exact Hz|clear Hsmall; lia].
    cbn [s_err]. clear Hsmall. apply f_equal2; [apply f_equal; apply f_equal2; lia | f_equal; lia].
Qed.

Lemma fits_small size sfs : fits size sfs = true -> sfs <= 254 /\ size < 4294967296.
Proof.
  unfold fits. intros H. apply andb_prop in H. destruct H as [H Hz].
  apply andb_prop in H. destruct H as [Hs Hf].
  apply N.leb_le in Hs. apply N.ltb_lt in Hz. now split.
Qed.

Lemma exceeds_false sfs size maxNr :
  sfs <= 254 -> size < 4294967296 -> (Z.of_N (1 + sfs + 1 + size) <= maxNr)%Z -> exceeds sfs size maxNr = false.
Proof.
  intros Hs Hz Hm. unfold exceeds, u64. rewrite N.mod_small by lia.
  rewrite Z.gtb_ltb. apply Z.ltb_ge. exact Hm.
Qed.

Fixpoint desc_depth (d : desc) : nat :=
  match d with
  | DDcd _ _ _ _ _ _ cs _ =>
      S ((fix mx (l : list desc) : nat :=
            match l with [] => O | c :: r => Nat.max (desc_depth c) (mx r) end) cs)
  | _ => 1%nat
  end.

Fixpoint depths_max (l : list desc) : nat :=
  match l with [] => O | c :: r => Nat.max (desc_depth c) (depths_max r) end.

(* size fields wide enough for the payload (fits); the DecoderConfigDescriptor's 8/24/32-bit
   fields in range; a descriptor with a reserved tag (3..6) is not a RawDescriptor; trailing unknown data:
   at most one byte (two or more bytes may parse as a descriptor), none when nothing precedes it *)
Fixpoint desc_wf (d : desc) : bool :=
  match d with
  | DDcd sfs ot st buf maxbr avgbr cs u =>
      fits (desc_size_of d) sfs && (st <? 256) && (buf <? 16777216)
      && (maxbr <? 4294967296) && (avgbr <? 4294967296)
      && (fix all (l : list desc) : bool :=
            match l with [] => true | c :: r => desc_wf c && all r end) cs
      && (match cs with [] => lenN u =? 0 | _ => lenN u <=? 1 end)
  | DDsi sfs dc => fits (lenN dc) sfs
  | DSlc sfs cv more => fits (1 + lenN more) sfs
  | DRaw tag sfs data =>
      fits (lenN data) sfs && negb ((tag =? 3) || (tag =? 4) || (tag =? 5) || (tag =? 6))
  end.

Fixpoint descs_wf (l : list desc) : bool :=
  match l with [] => true | c :: r => desc_wf c && descs_wf r end.

Lemma dcd_depth_eq a b c d e f cs u : desc_depth (DDcd a b c d e f cs u) = S (depths_max cs).
Proof. reflexivity. Qed.

Lemma dcd_size_eq a b c d e f cs u : desc_size_of (DDcd a b c d e f cs u) = 13 + sizes_sum cs + lenN u.
Proof. reflexivity. Qed.

Lemma dcd_wf_eq sfs ot st buf maxbr avgbr cs u :
  desc_wf (DDcd sfs ot st buf maxbr avgbr cs u)
  = fits (13 + sizes_sum cs + lenN u) sfs && (st <? 256) && (buf <? 16777216)
    && (maxbr <? 4294967296) && (avgbr <? 4294967296) && descs_wf cs
    && (match cs with [] => lenN u =? 0 | _ => lenN u <=? 1 end).
Proof. reflexivity. Qed.

Lemma dcd_encode_eq sfs ot st buf maxbr avgbr cs u :
  encode_desc (DDcd sfs ot st buf maxbr avgbr cs u)
  = [4] ++ desc_size (13 + sizes_sum cs + lenN u) (N.to_nat sfs) ++ [ot]
    ++ be32 (N.lor ((st * 16777216) mod 4294967296) buf) ++ be32 maxbr ++ be32 avgbr
    ++ encode_descs cs ++ u.
Proof. reflexivity. Qed.

Lemma desc_depth_pos d : (1 <= desc_depth d)%nat.
Proof. destruct d; cbn [desc_depth]; lia. Qed.

Lemma desc_sizesize_ge2 d : 2 <= desc_sizesize d.
Proof. unfold desc_sizesize. lia. Qed.

Lemma encode_desc_nonempty d : (1 <= length (encode_desc d))%nat.
Proof. destruct d; try rewrite dcd_encode_eq; cbn [encode_desc app length]; lia. Qed.

Lemma encode_descs_length cs : (length cs <= length (encode_descs cs))%nat.
Proof.
  induction cs as [|c r IH]; [cbn; lia|]. cbn [encode_descs length]. rewrite app_length.
  pose proof (encode_desc_nonempty c). lia.
Qed.

Lemma lor_st_buf st buf :
  st < 256 -> buf < 16777216 -> N.lor ((st * 16777216) mod 4294967296) buf = st * 16777216 + buf.
Proof. intros Hs Hb. rewrite N.mod_small by lia. now apply (lor_shifted_add st buf 24). Qed.

(* DecodeDescriptor on a reader with a byte in it: the tag is read and selects the decoder *)
Lemma decode_desc_cons fu maxNr tag l p :
  (2 <= maxNr)%Z ->
  decode_desc (S fu) maxNr (mkSl (tag :: l) p false)
  = let s := mkSl l (p + 1) false in
    if tag =? 3 then (Err, s)
    else if tag =? 4 then decode_dcd_with (decode_desc fu) maxNr s
    else if tag =? 5 then decode_dsi maxNr s
    else if tag =? 6 then decode_slc maxNr s
    else decode_raw tag maxNr s.
Proof. intros H. cbn [decode_desc]. replace (maxNr <? 2)%Z with false by lia. reflexivity. Qed.

Lemma decode_desc_dsi fu sfs dc rest p maxNr :
  fits (lenN dc) sfs = true -> (Z.of_N (desc_sizesize (DDsi sfs dc)) <= maxNr)%Z ->
  decode_desc (S fu) maxNr (mkSl (encode_desc (DDsi sfs dc) ++ rest) p false)
  = (Ok (DDsi sfs dc), mkSl rest (p + desc_sizesize (DDsi sfs dc)) false).
Proof.
  intros Hf Hm. unfold desc_sizesize in *. cbn [desc_sfs desc_size_of] in *.
  destruct (fits_small _ _ Hf) as [Hs Hz].
  cbn [encode_desc]. rewrite <- !app_assoc. cbn [app]. rewrite decode_desc_cons by lia.
  change (5 =? 3) with false. change (5 =? 4) with false. change (5 =? 5) with true. cbv beta iota zeta.
  unfold decode_dsi. rewrite read_size_ok by exact Hf.
  rewrite exceeds_false by (try exact Hs; try exact Hz; lia).
  cbn [s_pos]. rewrite int_of_u64_small by lia. rewrite sr_bytes_app. cbn [s_pos s_err].
  replace (Z.of_N (lenN dc) - Z.of_N (p + 1 + sfs + 1 + lenN dc - (p + 1 + sfs + 1)) >? 0)%Z with false by lia.
  f_equal. f_equal. lia.
Qed.

Lemma decode_desc_slc fu sfs cv more rest p maxNr :
  fits (1 + lenN more) sfs = true -> (Z.of_N (desc_sizesize (DSlc sfs cv more)) <= maxNr)%Z ->
  decode_desc (S fu) maxNr (mkSl (encode_desc (DSlc sfs cv more) ++ rest) p false)
  = (Ok (DSlc sfs cv more), mkSl rest (p + desc_sizesize (DSlc sfs cv more)) false).
Proof.
  intros Hf Hm. unfold desc_sizesize in *. cbn [desc_sfs desc_size_of] in *.
  destruct (fits_small _ _ Hf) as [Hs Hz].
  cbn [encode_desc]. rewrite <- !app_assoc. cbn [app]. rewrite decode_desc_cons by lia.
  change (6 =? 3) with false. change (6 =? 4) with false. change (6 =? 5) with false.
  change (6 =? 6) with true. cbv beta iota zeta.
  unfold decode_slc. rewrite read_size_ok by exact Hf.
  rewrite exceeds_false by (try exact Hs; try exact Hz; lia).
  replace (1 + lenN more =? 0) with false by lia. cbv beta iota.
  rewrite sr_u8_cons.
  destruct more as [|m0 mt].
  - change (lenN (@nil N)) with 0. change (1 <? 1 + 0) with false. cbv beta iota. cbn [s_err app].
    f_equal. f_equal. lia.
  - replace (1 <? 1 + lenN (m0 :: mt)) with true by (rewrite lenN_cons; lia).
    replace (1 + lenN (m0 :: mt) - 1) with (lenN (m0 :: mt)) by lia.
    rewrite int_of_u64_small by lia. rewrite sr_bytes_app. cbn [s_err].
    f_equal. f_equal. lia.
Qed.

Lemma decode_desc_raw fu tag sfs data rest p maxNr :
  fits (lenN data) sfs = true -> negb ((tag =? 3) || (tag =? 4) || (tag =? 5) || (tag =? 6)) = true ->
  (Z.of_N (desc_sizesize (DRaw tag sfs data)) <= maxNr)%Z ->
  decode_desc (S fu) maxNr (mkSl (encode_desc (DRaw tag sfs data) ++ rest) p false)
  = (Ok (DRaw tag sfs data), mkSl rest (p + desc_sizesize (DRaw tag sfs data)) false).
Proof.
  intros Hf Ht Hm. unfold desc_sizesize in *. cbn [desc_sfs desc_size_of] in *.
  destruct (fits_small _ _ Hf) as [Hs Hz].
  apply negb_true_iff in Ht. rewrite !orb_false_iff in Ht. destruct Ht as [[[H3 H4] H5] H6].
  cbn [encode_desc]. rewrite <- !app_assoc. cbn [app]. rewrite decode_desc_cons by lia.
  rewrite H3, H4, H5, H6. cbv beta iota zeta.
  unfold decode_raw. rewrite read_size_ok by exact Hf.
  rewrite exceeds_false by (try exact Hs; try exact Hz; lia).
  rewrite int_of_u64_small by lia. rewrite sr_bytes_app. cbn [s_err].
  f_equal. f_equal. lia.
Qed.

Definition dd_ok (dd : Z -> sl -> res desc * sl) (d : desc) : Prop :=
  forall rest p maxNr, (Z.of_N (desc_sizesize d) <= maxNr)%Z ->
    dd maxNr (mkSl (encode_desc d ++ rest) p false) = (Ok d, mkSl rest (p + desc_sizesize d) false).

Definition dd_small (dd : Z -> sl -> res desc * sl) : Prop :=
  forall maxNr s, (maxNr < 2)%Z -> dd maxNr s = (Err, s).

Lemma desc_loop_ok dd : dd_small dd -> forall cs, Forall (dd_ok dd) cs ->
  forall k size start p acc u rest,
    (length cs < k)%nat -> lenN u <= 1 -> start <= p ->
    (size - Z.of_N (p - start) = Z.of_N (sizes_sum cs + lenN u))%Z ->
    desc_loop dd k size start (mkSl (encode_descs cs ++ u ++ rest) p false) acc
    = if lenN u =? 0 then LDone (rev acc ++ cs) (mkSl rest (p + sizes_sum cs) false)
      else LUnknown (rev acc ++ cs) u (mkSl rest (p + sizes_sum cs + lenN u) false).
Proof.
  intros Hsmall cs Hcs. induction Hcs as [|c cs Hc Hcs IH]; intros k size start p acc u rest Hk Hu Hp Hsz.
  - destruct k as [|k]; [cbn [length] in Hk; lia|]. cbn [desc_loop encode_descs app sizes_sum s_pos].
    rewrite Hsz. cbn [sizes_sum]. rewrite app_nil_r.
    destruct u as [|x [|y t]].
    + change (lenN (@nil N)) with 0. change (Z.of_N (0 + 0) =? 0)%Z with true. cbv beta iota.
      cbn [app]. change (0 =? 0) with true. cbv beta iota. f_equal. f_equal. lia.
    + change (lenN [x]) with 1. change (Z.of_N (0 + 1) =? 0)%Z with false.
      change (Z.of_N (0 + 1) <? 0)%Z with false. cbv beta iota.
      rewrite Hsmall by (cbn; lia). unfold sl_restore. cbn [s_rem s_pos s_err app].
      change (Z.of_N (0 + 1)) with (Z.of_N (lenN [x])).
      change (x :: rest) with ([x] ++ rest).
      rewrite (sr_bytes_app [x] rest p). change (lenN [x]) with 1. change (1 =? 0) with false.
      cbv beta iota. f_equal. f_equal. lia.
    + rewrite !lenN_cons in Hu. lia.
  - destruct k as [|k]; [cbn [length] in Hk; lia|]. cbn [desc_loop encode_descs sizes_sum s_pos].
    cbn [sizes_sum] in Hsz. rewrite Hsz.
    pose proof (desc_sizesize_ge2 c) as H2.
    replace (Z.of_N (desc_sizesize c + sizes_sum cs + lenN u) =? 0)%Z with false by lia.
    replace (Z.of_N (desc_sizesize c + sizes_sum cs + lenN u) <? 0)%Z with false by lia.
    rewrite <- app_assoc. rewrite (Hc _ p) by lia.
    rewrite IH; [|cbn [length] in Hk; lia|exact Hu|lia|lia].
    cbn [rev]. rewrite <- !app_assoc. cbn [app].
    destruct (lenN u =? 0); f_equal; f_equal; lia.
Qed.

Lemma decode_desc_small fu : dd_small (decode_desc (S fu)).
Proof. intros maxNr s H. cbn [decode_desc]. replace (maxNr <? 2)%Z with true by lia. reflexivity. Qed.

Lemma depths_max_le cs c : In c cs -> (desc_depth c <= depths_max cs)%nat.
Proof.
  induction cs as [|x r IH]; [intros []|]. cbn [depths_max]. intros [-> | H]; [lia|].
  specialize (IH H). lia.
Qed.

Lemma descs_wf_in cs c : descs_wf cs = true -> In c cs -> desc_wf c = true.
Proof.
  induction cs as [|x r IH]; [intros _ []|]. cbn [descs_wf]. intros H [-> | Hin];
    apply andb_prop in H; destruct H as [Hx Hr]; [exact Hx|now apply IH].
Qed.

(* DecodeDecoderConfigDescriptor (after the tag) on the encoder's bytes, for any decoder dd of the contained
   descriptors that inverts the encoder on each of them *)
Lemma decode_dcd_with_ok dd sfs ot st buf maxbr avgbr cs u rest p maxNr :
  (cs <> [] -> dd_small dd) -> Forall (dd_ok dd) cs ->
  desc_wf (DDcd sfs ot st buf maxbr avgbr cs u) = true ->
  (Z.of_N (1 + sfs + 1 + (13 + sizes_sum cs + lenN u)) <= maxNr)%Z ->
  decode_dcd_with dd maxNr
    (mkSl (desc_size (13 + sizes_sum cs + lenN u) (N.to_nat sfs) ++ ot
           :: be32 (N.lor ((st * 16777216) mod 4294967296) buf) ++ be32 maxbr ++ be32 avgbr
           ++ encode_descs cs ++ u ++ rest) p false)
  = (Ok (DDcd sfs ot st buf maxbr avgbr cs u), mkSl rest (p + sfs + 1 + (13 + sizes_sum cs + lenN u)) false).
Proof.
  intros Hsmall Hdd Hw Hm. rewrite dcd_wf_eq, !andb_true_iff in Hw.
  destruct Hw as ((((((Hf & Hst) & Hbuf) & Hmax) & Havg) & _) & Hu).
  apply N.ltb_lt in Havg, Hmax, Hbuf, Hst.
  destruct (fits_small _ _ Hf) as [Hs Hz].
  rewrite lor_st_buf by assumption.
  unfold decode_dcd_with. rewrite read_size_ok by exact Hf.
  rewrite exceeds_false by (try exact Hs; try exact Hz; lia).
  cbn [s_pos]. rewrite sr_u8_cons.
  rewrite sr_u32_be32 by lia. rewrite sr_u32_be32 by exact Hmax. rewrite sr_u32_be32 by exact Havg.
  replace ((st * 16777216 + buf) / 16777216) with st by (apply N.div_unique with buf; lia).
  replace ((st * 16777216 + buf) mod 16777216) with buf by (apply N.mod_unique with st; lia).
  cbn [s_pos]. rewrite int_of_u64_small by lia.
  destruct Hdd as [|c cs Hc Hcs]; cbn [sizes_sum encode_descs app] in *.
  - apply N.eqb_eq in Hu. destruct u as [|x t]; [|rewrite lenN_cons in Hu; lia].
    change (lenN (@nil N)) with 0 in *.
    replace (_ =? 0)%Z with true by lia. f_equal. f_equal. lia.
  - apply N.leb_le in Hu. pose proof (desc_sizesize_ge2 c) as H2.
    replace (_ =? 0)%Z with false by lia. rewrite <- !app_assoc.
    rewrite (Hc _ _) by lia.
    rewrite (desc_loop_ok dd (Hsmall ltac:(discriminate)) cs Hcs).
    + cbn [rev app]. destruct (lenN u =? 0) eqn:Eu; f_equal; f_equal; try lia.
      apply N.eqb_eq in Eu. destruct u as [|x t]; [reflexivity|rewrite lenN_cons in Eu; lia].
    + cbn [s_rem]. rewrite app_length. pose proof (encode_descs_length cs). lia.
    + exact Hu.
    + lia.
    + lia.
Qed.

Lemma decode_desc_ok : forall fuel d rest p maxNr,
  (desc_depth d <= fuel)%nat -> desc_wf d = true -> (Z.of_N (desc_sizesize d) <= maxNr)%Z ->
  decode_desc fuel maxNr (mkSl (encode_desc d ++ rest) p false)
  = (Ok d, mkSl rest (p + desc_sizesize d) false).
Proof.
  induction fuel as [|fu IH]; intros d rest p maxNr Hd Hw Hm.
  - pose proof (desc_depth_pos d). lia.
  - destruct d as [sfs ot st buf maxbr avgbr cs u | sfs dc | sfs cv more | tag sfs data].
    2:{ apply decode_desc_dsi; assumption. }
    2:{ apply decode_desc_slc; assumption. }
    2:{ cbn [desc_wf] in Hw. apply andb_prop in Hw. destruct Hw as [Hf Ht]. apply decode_desc_raw; assumption. }
    rewrite dcd_depth_eq in Hd. unfold desc_sizesize in *. cbn [desc_sfs] in *. rewrite dcd_size_eq in *.
    rewrite dcd_encode_eq, <- !app_assoc. cbn [app]. rewrite decode_desc_cons by lia.
    change (4 =? 3) with false. change (4 =? 4) with true. cbv beta iota zeta.
    rewrite decode_dcd_with_ok; [f_equal; f_equal; lia| | |exact Hw|lia].
    + (* contained descriptors are one level less deep *)
      intros Hne. destruct fu as [|fu']; [|apply decode_desc_small].
      destruct cs as [|c cs]; [congruence|]. cbn [depths_max] in Hd. pose proof (desc_depth_pos c). lia.
    + apply Forall_forall. intros x Hx rest' p' maxNr' Hm'.
      rewrite dcd_wf_eq, !andb_true_iff in Hw.
      apply IH; [|apply (descs_wf_in cs); tauto|exact Hm'].
      pose proof (depths_max_le cs x Hx). lia.
Qed.

Definition es_depth (e : esd) : nat := Nat.max (desc_depth (es_dcd e)) (depths_max (es_children e)).

(* optional fields present exactly when their flag is set (and zero / empty otherwise, as the decoder leaves
   them); the first descriptor is a DecoderConfigDescriptor; at most one trailing unknown byte *)
Definition es_wf (e : esd) : bool :=
  fits (es_size_of e) (es_sfs e) && (es_id e <? 65536)
  && (if es_flags e / 128 =? 1 then es_dep e <? 65536 else es_dep e =? 0)
  && (if (es_flags e / 64) mod 2 =? 1 then lenN (es_url e) <? 256 else lenN (es_url e) =? 0)
  && (if (es_flags e / 32) mod 2 =? 1 then es_ocr e <? 65536 else es_ocr e =? 0)
  && (match es_dcd e with DDcd _ _ _ _ _ _ _ _ => true | _ => false end)
  && desc_wf (es_dcd e) && descs_wf (es_children e) && (lenN (es_unknown e) <=? 1).

(* the optional fields: encoder and decoder test the same flag bit c *)
Lemma sr_opt_u16 (c : bool) v l p :
  (if c then v <? 65536 else v =? 0) = true ->
  (if c then sr_u16 (mkSl ((if c then be16 v else []) ++ l) p false)
   else (0, mkSl ((if c then be16 v else []) ++ l) p false))
  = (v, mkSl l (p + (if c then 2 else 0)) false).
Proof.
  destruct c; intros H.
  - apply N.ltb_lt in H. now rewrite sr_u16_be16.
  - apply N.eqb_eq in H. subst v. cbn [app]. now rewrite N.add_0_r.
Qed.

Lemma sr_opt_url (c : bool) url l p :
  (if c then lenN url <? 256 else lenN url =? 0) = true ->
  (if c then let '(n, s) := sr_u8 (mkSl ((if c then lenN url mod 256 :: url else []) ++ l) p false) in sr_take n s
   else ([], mkSl ((if c then lenN url mod 256 :: url else []) ++ l) p false))
  = (url, mkSl l (p + (if c then 1 + lenN url else 0)) false).
Proof.
  destruct c; intros H.
  - apply N.ltb_lt in H. cbn [app]. rewrite sr_u8_cons, N.mod_small, sr_take_app by (exact H || reflexivity).
    f_equal. f_equal. lia.
  - destruct url as [|x t]; [|rewrite lenN_cons in H; lia]. cbn [app]. now rewrite N.add_0_r.
Qed.

Lemma decode_es_ok fuel e rest p :
  (es_depth e <= fuel)%nat -> es_wf e = true ->
  decode_es_f fuel (mkSl (encode_es e ++ rest) p false) = (Ok e, mkSl rest (p + es_sizesize e) false).
Proof.
  destruct e as [sfs id flags dep url ocr dcd cs u].
  unfold es_depth, es_wf, es_sizesize. cbn [es_sfs es_id es_flags es_dep es_url es_ocr es_dcd es_children es_unknown].
  intros Hd Hw. rewrite !andb_true_iff in Hw.
  destruct Hw as ((((((((Hf & Hid) & Hdep) & Hurl) & Hocr) & Hisd) & Hdw) & Hcs) & Hu).
  apply N.ltb_lt in Hid. apply N.leb_le in Hu.
  destruct (fits_small _ _ Hf) as [Hs Hz].
  destruct fuel as [|fu]; [pose proof (desc_depth_pos dcd); lia|].
  assert (Hdd : forall x, In x (dcd :: cs) -> dd_ok (decode_desc (S fu)) x).
  { intros x Hx rest' p' maxNr' Hm'. apply decode_desc_ok; [|..|exact Hm'].
    - destruct Hx as [<- | Hx]; [lia|]. pose proof (depths_max_le cs x Hx). lia.
    - destruct Hx as [<- | Hx]; [exact Hdw|]. now apply (descs_wf_in cs). }
  pose proof (desc_sizesize_ge2 dcd) as H2.
  unfold decode_es_f, encode_es, es_size_of, es_opt_size in *.
  cbn [es_sfs es_id es_flags es_dep es_url es_ocr es_dcd es_children es_unknown] in *.
  rewrite <- !app_assoc. cbn [app]. rewrite sr_u8_cons. change (negb (3 =? 3)) with false. cbv beta iota.
  rewrite read_size_ok by exact Hf. cbn [s_pos].
  rewrite sr_u16_be16 by exact Hid. rewrite sr_u8_cons.
  rewrite sr_opt_u16 by exact Hdep. cbv beta iota.
  rewrite sr_opt_url by exact Hurl. cbv beta iota.
  rewrite sr_opt_u16 by exact Hocr. cbv beta iota.
  cbn [s_pos]. rewrite int_of_u64_small by lia.
  set (o1 := if flags / 128 =? 1 then 2 else 0) in *.
  set (o2 := if (flags / 64) mod 2 =? 1 then 1 + lenN url else 0) in *.
  set (o3 := if (flags / 32) mod 2 =? 1 then 2 else 0) in *. clearbody o1 o2 o3.
  rewrite (Hdd dcd (or_introl eq_refl)) by (unfold desc_sizesize in *; lia).
  destruct dcd as [a0 b0 c0 d0 e0 f0 g0 h0 | | | ]; try discriminate. cbv beta iota. cbn [s_pos].
  destruct cs as [|c cs]; cbn [encode_descs sizes_sum app] in *.
  - (* no further descriptor: what is left is UnknownData *)
    rewrite (decode_desc_small fu) by (unfold desc_sizesize in *; lia).
    unfold sl_restore. cbn [s_rem s_pos s_err].
    match goal with |- context [sr_bytes ?n _] =>
      replace n with (Z.of_N (lenN u)) by (unfold desc_sizesize in *; lia) end.
    rewrite sr_bytes_app. f_equal. f_equal. unfold desc_sizesize. lia.
  - rewrite <- !app_assoc. pose proof (desc_sizesize_ge2 c) as H2c.
    rewrite (Hdd c (or_intror (or_introl eq_refl))) by (unfold desc_sizesize in *; lia).
    rewrite (desc_loop_ok (decode_desc (S fu)) (decode_desc_small fu) cs).
    + destruct (lenN u =? 0) eqn:Eu.
      * apply N.eqb_eq in Eu. destruct u as [|? ?]; [|rewrite lenN_cons in Eu; lia].
        cbn [rev app es_sfs es_id es_flags es_dep es_url es_ocr es_dcd es_children es_unknown sizes_sum].
        change (lenN (@nil N)) with 0. rewrite N.eqb_refl. cbn [negb s_err].
        f_equal. f_equal. unfold desc_sizesize. lia.
      * cbn [rev app]. f_equal. f_equal. unfold desc_sizesize. lia.
    + apply Forall_forall. intros x Hx. apply Hdd. right. right. exact Hx.
    + cbn [s_rem]. rewrite app_length. pose proof (encode_descs_length cs). lia.
    + exact Hu.
    + unfold desc_sizesize in *. lia.
    + unfold desc_sizesize in *. lia.
Qed.

Lemma depths_max_enc cs :
  (forall c, In c cs -> (desc_depth c <= length (encode_desc c))%nat) ->
  (depths_max cs <= length (encode_descs cs))%nat.
Proof.
  induction cs as [|c r IH]; intros H; [cbn; lia|].
  cbn [depths_max encode_descs]. rewrite app_length.
  pose proof (H c (or_introl eq_refl)). specialize (IH (fun x Hx => H x (or_intror Hx))). lia.
Qed.

Lemma desc_depth_le_length : forall n d, (desc_depth d <= n)%nat -> (desc_depth d <= length (encode_desc d))%nat.
Proof.
  induction n as [|n IH]; intros d Hd.
  - pose proof (desc_depth_pos d). lia.
  - destruct d as [sfs ot st buf maxbr avgbr cs u | sfs dc | sfs cv more | tag sfs data];
      try (cbn [desc_depth encode_desc app length]; lia).
    rewrite dcd_depth_eq in *. rewrite dcd_encode_eq.
    assert (H : (depths_max cs <= length (encode_descs cs))%nat).
    { apply depths_max_enc. intros c Hc. apply IH. pose proof (depths_max_le cs c Hc). lia. }
    cbn [app length]. rewrite !app_length. cbn [length]. rewrite !app_length. lia.
Qed.

Lemma es_depth_le_length e rest : (es_depth e <= S (length (encode_es e ++ rest)))%nat.
Proof.
  unfold es_depth, encode_es.
  pose proof (desc_depth_le_length _ (es_dcd e) (le_n _)) as H1.
  assert (H2 : (depths_max (es_children e) <= length (encode_descs (es_children e)))%nat).
  { apply depths_max_enc. intros c _. apply (desc_depth_le_length _ c (le_n _)). }
  rewrite !app_length. lia.
Qed.

(* mp4.DecodeESDescriptor on a reader holding the encoding of a well-formed value (and anything after it) *)
Lemma es_descriptor_roundtrip e rest :
  es_wf e = true ->
  decode_es_descriptor (encode_es e ++ rest) = (Ok e, mkSl rest (es_sizesize e) false).
Proof.
  intros Hw. unfold decode_es_descriptor, sl_init.
  rewrite decode_es_ok; [reflexivity|apply es_depth_le_length|exact Hw].
Qed.

Lemma descriptor_roundtrip d rest maxNr :
  desc_wf d = true -> (Z.of_N (desc_sizesize d) <= maxNr)%Z ->
  decode_descriptor maxNr (encode_desc d ++ rest) = (Ok d, mkSl rest (desc_sizesize d) false).
Proof.
  intros Hw Hm. unfold decode_descriptor, sl_init.
  rewrite decode_desc_ok; [reflexivity| |exact Hw|exact Hm].
  pose proof (desc_depth_le_length _ d (le_n _)). rewrite app_length. lia.
Qed.

(* DecodeEsds on the body of the box EsdsBox.Encode writes *)
Lemma esds_body_roundtrip vf e :
  vf < 4294967296 -> es_wf e = true -> decode_esds_body (be32 vf ++ encode_es e) = Ok (vf, e).
Proof.
  intros Hv Hw. unfold decode_esds_body, sl_init. rewrite sr_u32_be32 by exact Hv.
  rewrite <- (app_nil_r (encode_es e)).
  rewrite decode_es_ok; [reflexivity| |exact Hw].
  pose proof (es_depth_le_length e []). rewrite !app_length in *. cbn [length] in *. lia.
Qed.

(* whatever well-formed shape the esds has, the configuration it carries as DecoderSpecificInfo comes back *)
Definition es_carries (e : esd) (a : asc) : bool :=
  match es_dec_config e, encode_asc a with
  | Some dc, Ok bs => list_eqb dc bs
  | _, _ => false
  end.

Lemma list_eqb_eq : forall a b, list_eqb a b = true -> a = b.
Proof.
  unfold list_eqb. induction a as [|x a IH]; intros [|y b] H; try reflexivity.
  - apply andb_prop in H. destruct H as [H _]. apply N.eqb_eq in H. rewrite lenN_cons, lenN_nil in H. lia.
  - apply andb_prop in H. destruct H as [H _]. apply N.eqb_eq in H. rewrite lenN_cons, lenN_nil in H. lia.
  - apply andb_prop in H. destruct H as [Hl Hf]. cbn [combine forallb] in Hf.
    apply andb_prop in Hf. destruct Hf as [Hx Hf]. apply N.eqb_eq in Hx. subst y. f_equal.
    apply IH. apply N.eqb_eq in Hl. rewrite !lenN_cons in Hl.
    replace (lenN a =? lenN b) with true by (symmetry; apply N.eqb_eq; lia). exact Hf.
Qed.

Definition esds_asc (body : list N) : res asc :=
  match decode_esds_body body with
  | Ok (_, e) => match es_dec_config e with Some dc => decode_asc dc | None => Err end
  | Err => Err
  | Panic => Panic
  | OutOfFuel => OutOfFuel
  end.

Lemma esds_config_roundtrip vf e a :
  vf < 4294967296 -> es_wf e = true -> canonical a = true -> es_carries e a = true ->
  esds_asc (be32 vf ++ encode_es e) = Ok a.
Proof.
  intros Hv Hw Hc Hcar. unfold esds_asc. rewrite esds_body_roundtrip by assumption.
  unfold es_carries in Hcar. destruct (es_dec_config e) as [dc|]; [|discriminate].
  pose proof (asc_roundtrip a Hc) as Hrt.
  destruct (encode_asc a) as [bs| | |]; try discriminate.
  apply list_eqb_eq in Hcar. subst dc. exact Hrt.
Qed.

(* the esds SetAACDescriptor builds (C18EntryModel.es_bytes) is one of these shapes *)
Definition aac_esd (dc : list N) : esd :=
  mkEsd 0 1 0 0 [] 0 (DDcd 0 64 21 0 0 0 [DDsi 0 dc] []) [DSlc 0 2 []] [].

Lemma aac_esd_size dc : es_size_of (aac_esd dc) = es_size dc.
Proof.
  unfold es_size_of, es_opt_size, aac_esd, es_size, dcd_size, desc_sizesize.
  cbn [es_flags es_url es_dcd es_children es_unknown sizes_sum desc_sfs]. rewrite dcd_size_eq.
  cbn [sizes_sum desc_sfs desc_size_of]. unfold desc_sizesize. cbn [desc_sfs desc_size_of].
  change (lenN (@nil N)) with 0. change (0 / 128 =? 1) with false. change ((0 / 64) mod 2 =? 1) with false.
  change ((0 / 32) mod 2 =? 1) with false. cbv iota. lia.
Qed.

Lemma aac_esd_bytes dc : encode_es (aac_esd dc) = es_bytes dc.
Proof.
  unfold encode_es. rewrite aac_esd_size. unfold aac_esd, es_bytes, dcd_bytes, dsi_bytes, slc_bytes.
  cbn [es_sfs es_id es_flags es_dep es_url es_ocr es_dcd es_children es_unknown].
  change (0 / 128 =? 1) with false. change ((0 / 64) mod 2 =? 1) with false. change ((0 / 32) mod 2 =? 1) with false.
  cbv beta iota. rewrite dcd_encode_eq. cbn [encode_descs encode_desc sizes_sum].
  replace (13 + (desc_sizesize (DDsi 0 dc) + 0) + lenN []) with (dcd_size dc)
    by (unfold dcd_size, desc_sizesize; cbn [desc_sfs desc_size_of]; change (lenN (@nil N)) with 0; lia).
  change (N.lor ((21 * 16777216) mod 4294967296) 0) with (21 * 16777216).
  rewrite <- !app_assoc, !app_nil_r. reflexivity.
Qed.

Lemma aac_esd_wf dc : lenN dc <= 100 -> es_wf (aac_esd dc) = true.
Proof.
  intros H. unfold es_wf. rewrite aac_esd_size. unfold aac_esd, es_size, dcd_size.
  cbn [es_sfs es_id es_flags es_dep es_url es_ocr es_dcd es_children es_unknown].
  rewrite dcd_wf_eq. cbn [descs_wf desc_wf sizes_sum]. unfold desc_sizesize. cbn [desc_sfs desc_size_of].
  change (lenN (@nil N)) with 0.
  change (0 / 128 =? 1) with false. change ((0 / 64) mod 2 =? 1) with false. change ((0 / 32) mod 2 =? 1) with false.
  cbv beta iota.
  unfold fits. change (2 ^ (7 * (0 + 1))) with 128. lia.
Qed.

(* the esds of the entry SetAACDescriptor builds, read by the GENERAL descriptor decoder *)
Lemma set_aac_esds_general ot f :
  entry_freq_ok ot f = true ->
  exists dc, encode_asc (set_aac_asc ot f) = Ok dc
             /\ encode_es (aac_esd dc) = es_bytes dc
             /\ esds_asc (be32 0 ++ es_bytes dc) = Ok (set_aac_asc ot f).
Proof.
  intros H. pose proof (set_aac_asc_canonical ot f H) as Hc.
  pose proof (canonical_encode _ Hc) as He.
  eexists. split; [exact He|]. split; [apply aac_esd_bytes|].
  rewrite <- aac_esd_bytes. apply esds_config_roundtrip.
  - reflexivity.
  - apply aac_esd_wf. apply asc_bytes_short.
  - exact Hc.
  - unfold es_carries, aac_esd, es_dec_config. cbn [es_dcd]. rewrite He. apply list_eqb_refl.
Qed.
