(* C18AdtsProofs.v — ADTS header: the sync search skips junk without a sync word and reports its
   length (induction over the iterations, incl. ff runs and the sync2 re-use path); the field reads
   invert the field writes for every canonical header (general in all fields, in particular in the
   payload length). *)
From V.lib Require Import Base.
From V.c18 Require Import C18Model C18BitsProofs C18AscProofs.

Lemma rd8_byte b rest : b < 256 -> rd 8 (mkR (to_bits 8 b ++ rest) false) = (b, mkR rest false).
Proof. intros H. apply (rd_to_bits_small 8). exact H. Qed.

(* one iteration of the sync search *)
Lemma sync_loop_S f s sync2 offset :
  sync_loop (S f) s sync2 offset =
  (let '(sync1, s1, off1) :=
     if negb (sync2 =? 255) then let '(v, s1) := rd 8 s in (v mod 256, s1, offset)
     else (sync2, s, (offset - 1)%Z) in
   if sync1 =? 255 then
     let '(v, s2) := rd 8 s1 in
     let sync2' := v mod 256 in
     if is_sync2 sync2' then (true, sync2', off1, s2)
     else sync_loop f s2 sync2' (off1 + 2)%Z
   else sync_loop f s1 sync2 (off1 + 1)%Z).
Proof. reflexivity. Qed.

Lemma step_other f b l sync2 off :
  sync2 <> 255 -> b < 256 -> b <> 255 ->
  sync_loop (S f) (mkR (to_bits 8 b ++ l) false) sync2 off = sync_loop f (mkR l false) sync2 (off + 1)%Z.
Proof.
  intros H2 Hb Hn. rewrite sync_loop_S.
  replace (sync2 =? 255) with false by (symmetry; now apply N.eqb_neq).
  cbn [negb]. rewrite rd8_byte by exact Hb. cbv beta iota.
  rewrite N.mod_small by exact Hb.
  replace (b =? 255) with false by (symmetry; now apply N.eqb_neq).
  reflexivity.
Qed.

Lemma step_ff f x l sync2 off :
  sync2 <> 255 -> x < 256 ->
  sync_loop (S f) (mkR (to_bits 8 255 ++ to_bits 8 x ++ l) false) sync2 off
  = if is_sync2 x then (true, x, off, mkR l false) else sync_loop f (mkR l false) x (off + 2)%Z.
Proof.
  intros H2 Hx. rewrite sync_loop_S.
  replace (sync2 =? 255) with false by (symmetry; now apply N.eqb_neq).
  cbn [negb]. rewrite rd8_byte by reflexivity. cbv beta iota.
  change (255 mod 256 =? 255) with true. cbv beta iota.
  rewrite rd8_byte by exact Hx. cbv beta iota zeta.
  rewrite N.mod_small by exact Hx. reflexivity.
Qed.

(* the sync2 re-use path: an iteration entered with sync2 = ff behaves exactly like an ordinary
   iteration that reads that ff again, one position earlier *)
Lemma step_reuse f l off :
  sync_loop (S f) (mkR l false) 255 off
  = sync_loop (S f) (mkR (to_bits 8 255 ++ l) false) 0 (off - 1)%Z.
Proof.
  rewrite !sync_loop_S.
  change (negb (255 =? 255)) with false. change (negb (0 =? 255)) with true. cbv beta iota.
  rewrite rd8_byte by reflexivity. cbv beta iota.
  change (255 mod 256) with 255. reflexivity.
Qed.

(* ff ff: the second ff is not a sync2 (layer 3) and is re-used as sync1; in all, one position further
   with the ff still to be read *)
Lemma step_ff_ff f l sync2 off :
  sync2 <> 255 ->
  sync_loop (S (S f)) (mkR (to_bits 8 255 ++ to_bits 8 255 ++ l) false) sync2 off
  = sync_loop (S f) (mkR (to_bits 8 255 ++ l) false) 0 (off + 1)%Z.
Proof.
  intros H2. rewrite step_ff by (exact H2 || reflexivity). change (is_sync2 255) with false. cbv iota.
  rewrite step_reuse. f_equal. lia.
Qed.

(* the search over junk *)
Lemma sync_loop_junk : forall fuel junk sync2 off x T,
  sync2 <> 255 -> (length junk < fuel)%nat ->
  bytes_ok junk = true -> no_sync_in junk = true ->
  x < 256 -> is_sync2 x = true ->
  sync_loop fuel (mkR (unpack junk ++ to_bits 8 255 ++ to_bits 8 x ++ T) false) sync2 off
  = (true, x, (off + Z.of_nat (length junk))%Z, mkR T false).
Proof.
  induction fuel as [|f IH]; intros junk sync2 off x T H2 Hlen Hb Hns Hx Hsx; [lia|].
  destruct junk as [|b j].
  { cbn [unpack flat_map app length]. rewrite step_ff, Hsx by assumption. f_equal. f_equal. lia. }
  rewrite bytes_ok_cons in Hb. apply andb_prop in Hb. destruct Hb as [Hb Hbj]. apply N.ltb_lt in Hb.
  cbn [no_sync_in] in Hns. apply andb_prop in Hns. destruct Hns as [Hns1 Hnsj].
  cbn [length] in Hlen. rewrite unpack_cons, <- app_assoc.
  destruct (N.eq_dec b 255) as [-> | Hnb].
  2:{ rewrite step_other, IH by (assumption || lia). f_equal. f_equal. cbn [length]. lia. }
  (* the junk byte is ff: the byte after it (more junk, or the header's own ff) is read as sync2 *)
  destruct j as [|y j'].
  - destruct f as [|f']; [cbn [length] in Hlen; lia|]. cbn [unpack flat_map app].
    rewrite step_ff_ff by exact H2.
    change (to_bits 8 255 ++ to_bits 8 x ++ T) with (unpack [] ++ to_bits 8 255 ++ to_bits 8 x ++ T).
    rewrite (IH [] 0) by (assumption || reflexivity || discriminate || (cbn [length]; lia)).
    f_equal. f_equal. cbn [length]. lia.
  - rewrite bytes_ok_cons in Hbj. apply andb_prop in Hbj. destruct Hbj as [Hy Hbj']. apply N.ltb_lt in Hy.
    change (255 =? 255) with true in Hns1. cbn [andb] in Hns1. apply negb_true_iff in Hns1.
    cbn [length] in Hlen. rewrite unpack_cons, <- app_assoc.
    destruct (N.eq_dec y 255) as [-> | Hny].
    + destruct f as [|f']; [lia|]. rewrite step_ff_ff by exact H2.
      rewrite app_assoc, <- unpack_cons, (IH (255 :: j') 0) by (assumption || discriminate || (cbn [length]; lia)).
      f_equal. f_equal. cbn [length]. lia.
    + cbn [no_sync_in] in Hnsj. apply andb_prop in Hnsj. destruct Hnsj as [_ Hnsj'].
      rewrite step_ff, Hns1, IH by (assumption || lia). f_equal. f_equal. cbn [length]. lia.
Qed.

(* the fields after the sync word *)
Definition adts_tail_bits (h : adts) : list bool :=
  to_bits 2 (u64 (h_ot h + 18446744073709551615))
  ++ to_bits 4 (h_sfi h) ++ to_bits 1 0 ++ to_bits 3 (h_chan h) ++ to_bits 4 0
  ++ to_bits 13 (u16 (h_plen h + 7)) ++ to_bits 11 (h_bf h) ++ to_bits 2 0.

Lemma adts_bits_split h :
  adts_bits h = to_bits 8 255 ++ to_bits 8 241 ++ adts_tail_bits h.
Proof. reflexivity. Qed.

Lemma adts_bits_length h : length (adts_bits h) = 56%nat.
Proof. unfold adts_bits. rewrite !app_length, !to_bits_length. reflexivity. Qed.

Lemma unpack_encode_adts h : unpack (encode_adts h) = adts_bits h.
Proof. unfold encode_adts. apply unpack_pack. rewrite adts_bits_length. reflexivity. Qed.

Lemma encode_adts_length h : length (encode_adts h) = 7%nat.
Proof.
  pose proof (f_equal (@length bool) (unpack_encode_adts h)) as H.
  rewrite unpack_length, adts_bits_length in H. lia.
Qed.

Lemma adts_canonical_iff h :
  adts_canonical h = true <->
  h_id h = 0 /\ h_hlen h = 7 /\ 1 <= h_ot h <= 4 /\ h_sfi h < 16 /\ h_chan h < 8
  /\ h_plen h <= 8184 /\ h_bf h < 2048.
Proof.
  unfold adts_canonical. rewrite !andb_true_iff, !N.eqb_eq, !N.leb_le, !N.ltb_lt. tauto.
Qed.

Lemma decode_after_sync_tail h off T :
  adts_canonical h = true ->
  decode_after_sync 241 off (mkR (adts_tail_bits h ++ T) false) = Ok (h, off).
Proof.
  intros H. apply adts_canonical_iff in H. destruct h as [hid ot sfi ch hl pl bf].
  cbn [h_id h_ot h_sfi h_chan h_hlen h_plen h_bf] in H. destruct H as (-> & -> & Hot & Hs & Hc & Hp & Hb).
  unfold decode_after_sync_g, adts_tail_bits. cbn [h_id h_ot h_sfi h_chan h_hlen h_plen h_bf].
  change (N.land (N.shiftr 241 3) 1) with 0.
  change (N.land (N.shiftr 241 1) 3) with 0.
  change (N.land 241 1) with 1.
  change (negb (0 =? 0)) with false. change (negb (1 =? 1)) with false. cbv beta iota zeta.
  rewrite <- !app_assoc. rewrite !rd_to_bits. cbv beta iota zeta.
  change (0 mod 2 ^ N.of_nat 2 =? 0) with true. cbn [negb rerr].
  (* uint(ot)-1 in two bits, +1; the 13-bit frame length plen+7, -7 in uint16 *)
  unfold u8, u16, u64.
  f_equal. f_equal. f_equal; lia.
Qed.

Lemma adts_sync_offset junk h rest :
  (length junk <= 187)%nat -> bytes_ok junk = true -> no_sync_in junk = true ->
  adts_canonical h = true ->
  decode_adts (junk ++ encode_adts h ++ rest) = Ok (h, Z.of_nat (length junk)).
Proof.
  intros Hl Hb Hn Hc. unfold decode_adts, decode_adts_g, rinit.
  rewrite !unpack_app, unpack_encode_adts, adts_bits_split, <- !app_assoc.
  rewrite (sync_loop_junk ts_packet_size junk 0 0%Z 241); try assumption; try reflexivity; try discriminate.
  - cbn [rerr negb]. rewrite Z.add_0_l. now apply decode_after_sync_tail.
  - unfold ts_packet_size. lia.
Qed.

Lemma adts_roundtrip h rest :
  adts_canonical h = true -> decode_adts (encode_adts h ++ rest) = Ok (h, 0%Z).
Proof. intros Hc. apply (adts_sync_offset [] h rest); try reflexivity; [cbn [length]; lia|exact Hc]. Qed.

Lemma adts_eqb_refl h : adts_eqb h h = true.
Proof. unfold adts_eqb. now rewrite !N.eqb_refl. Qed.

Lemma adts_roundtrip_ok_true junk h rest :
  (length junk <= 187)%nat -> bytes_ok junk = true -> no_sync_in junk = true ->
  adts_canonical h = true -> adts_roundtrip_ok junk h rest = true.
Proof.
  intros Hl Hb Hn Hc. unfold adts_roundtrip_ok. rewrite adts_sync_offset by assumption.
  now rewrite adts_eqb_refl, Z.eqb_refl.
Qed.

Lemma encode_adts_injective a b :
  adts_canonical a = true -> adts_canonical b = true -> encode_adts a = encode_adts b -> a = b.
Proof.
  intros Ha Hb E. pose proof (adts_roundtrip a [] Ha) as Ra. pose proof (adts_roundtrip b [] Hb) as Rb.
  rewrite E in Ra. rewrite Ra in Rb. now injection Rb.
Qed.

(* the search finds the FIRST sync word of any input (naive scan) *)
Lemma first_sync_split : forall l p,
  first_sync l = Some p ->
  exists junk x T, l = junk ++ 255 :: x :: T /\ length junk = p /\ is_sync2 x = true
                   /\ no_sync_in junk = true.
Proof.
  induction l as [|b t IH]; intros p H; [discriminate|].
  cbn [first_sync] in H.
  destruct ((b =? 255) && match t with x :: _ => is_sync2 x | [] => false end) eqn:E.
  - injection H as <-. apply andb_prop in E. destruct E as [Eb Ex]. apply N.eqb_eq in Eb. subst b.
    destruct t as [|x T]; [discriminate|].
    exists [], x, T. repeat split; assumption.
  - destruct (first_sync t) as [q|] eqn:Eq; [|discriminate]. injection H as <-.
    destruct (IH q eq_refl) as (junk & x & T & -> & Hlen & Hx & Hns).
    exists (b :: junk), x, T. repeat split; try assumption.
    + cbn [length]. now rewrite Hlen.
    + cbn [no_sync_in]. rewrite Hns, andb_true_r.
      destruct junk as [|y j'].
      * cbn [app] in E. change (is_sync2 255) with false in E. now rewrite andb_false_r.
      * cbn [app] in E. now rewrite E.
Qed.

Lemma sync_first data p :
  bytes_ok data = true -> first_sync data = Some p -> (p <= 187)%nat ->
  exists x T,
    data = firstn p data ++ 255 :: x :: T /\ is_sync2 x = true /\
    sync_loop ts_packet_size (rinit data) 0 0%Z = (true, x, Z.of_nat p, mkR (unpack T) false).
Proof.
  intros Hb Hf Hp.
  destruct (first_sync_split data p Hf) as (junk & x & T & -> & Hlen & Hx & Hns).
  exists x, T.
  rewrite bytes_ok_app in Hb. apply andb_prop in Hb. destruct Hb as [Hbj Hb].
  rewrite !bytes_ok_cons in Hb. apply andb_prop in Hb. destruct Hb as [_ Hb].
  apply andb_prop in Hb. destruct Hb as [Hbx _]. unfold byte_ok in Hbx. apply N.ltb_lt in Hbx.
  split; [|split; [exact Hx|]].
  - rewrite <- Hlen. rewrite firstn_app, Nat.sub_diag, firstn_all. cbn [firstn]. now rewrite app_nil_r.
  - unfold rinit. rewrite unpack_app, !unpack_cons.
    rewrite (sync_loop_junk ts_packet_size junk 0 0%Z x (unpack T)); try assumption; try discriminate.
    + now rewrite Z.add_0_l, Hlen.
    + unfold ts_packet_size. lia.
Qed.

(* NewADTSHeader, ADTSHeader.Frequency *)
Lemma new_adts_ok f ch pl h :
  new_adts f ch AAClc pl = Ok h ->
  exists i, freq_of_index i = Some f /\ i < 13 /\ h = mkAdts 0 AAClc i ch 7 pl 2047.
Proof.
  unfold new_adts. change (negb (AAClc =? AAClc)) with false. cbv beta iota.
  destruct (index_of_freq f) as [i|] eqn:E; [|discriminate].
  apply index_of_freq_sound in E. intros [= <-]. exists i. tauto.
Qed.

(* NewADTSHeader produces canonical headers for every table frequency, 3-bit channel configuration
   and 13-bit payload length *)
Lemma new_adts_canonical f ch pl h :
  new_adts f ch AAClc pl = Ok h -> ch < 8 -> pl <= 8184 ->
  adts_canonical h = true /\ freq_of_index (h_sfi h) = Some f.
Proof.
  intros H Hc Hp. destruct (new_adts_ok f ch pl h H) as (i & E & Hi & ->). split; [|exact E].
  apply adts_canonical_iff. cbn [h_id h_ot h_sfi h_chan h_hlen h_plen h_bf]. unfold AAClc. lia.
Qed.

(* the accessor returns uint16: exact for the table frequencies below 65536 ... *)
Lemma adts_frequency_exact f ch pl h :
  new_adts f ch AAClc pl = Ok h -> (f < 65536)%Z -> Z.of_N (adts_frequency h) = f.
Proof.
  intros H Hf. destruct (new_adts_ok f ch pl h H) as (i & E & _ & ->).
  unfold adts_frequency. cbn [h_sfi]. rewrite E.
  apply freq_of_index_ok in E. unfold freq_ok in E. rewrite Z.mod_small by lia. lia.
Qed.

(* ... and wrong for 88200 and 96000 Hz (indices 1 and 0): the faithful model refutes exactness *)
Lemma adts_frequency_refuted :
  exists f h, new_adts f 2 AAClc 0 = Ok h /\ Z.of_N (adts_frequency h) <> f.
Proof.
  exists 88200%Z, (mkAdts 0 2 1 2 7 0 2047). split; [reflexivity|]. vm_compute. discriminate.
Qed.

(* the round trip in boolean form on the grids the correspondence run replays *)
Definition grid_plens : list N := [0; 8184].
Definition grid_bfs : list N := [0; 2047].

Lemma adts_grid_enum ot sfi ch pl bf :
  1 <= ot <= 4 -> sfi < 16 -> ch < 8 -> In pl grid_plens -> In bf grid_bfs ->
  adts_roundtrip_ok [] (mkAdts 0 ot sfi ch 7 pl bf) [] = true.
Proof.
  intros Hot Hs Hc Hp Hb. apply adts_roundtrip_ok_true; try reflexivity; [cbn [length]; lia|].
  apply adts_canonical_iff. cbn [h_id h_ot h_sfi h_chan h_hlen h_plen h_bf].
  unfold grid_plens, grid_bfs in *. cbn [In] in *. lia.
Qed.

(* every payload length representable with the 7-byte header in 13 bits *)
Definition len_header (pl : N) : adts := mkAdts 0 2 3 2 7 pl 2047.

Lemma len_header_canonical pl : pl <= 8184 -> adts_canonical (len_header pl) = true.
Proof. intros H. apply adts_canonical_iff. cbn [len_header h_id h_ot h_sfi h_chan h_hlen h_plen h_bf]. lia. Qed.

Lemma adts_length_enum pl : pl <= 8184 -> adts_roundtrip_ok [] (len_header pl) [] = true.
Proof.
  intros Hp. apply adts_roundtrip_ok_true; try reflexivity; [cbn [length]; lia|].
  now apply len_header_canonical.
Qed.

(* every junk length 0..187, three junk shapes: zeros, a run of ff, zeros ending in ff *)
Definition junk_zero (n : nat) : list N := repeat 0 n.
Definition junk_ff (n : nat) : list N := repeat 255 n.
Definition junk_zero_ff (n : nat) : list N := match n with O => [] | S m => repeat 0 m ++ [255] end.

Definition junk_ok (j : list N) : bool :=
  no_sync_in j && adts_roundtrip_ok j (len_header 371) [18; 52].

Lemma junk_ok_true j :
  (length j <= 187)%nat -> bytes_ok j = true -> no_sync_in j = true -> junk_ok j = true.
Proof.
  intros Hl Hb Hn. unfold junk_ok. rewrite Hn. cbn [andb].
  apply adts_roundtrip_ok_true; try assumption. now apply len_header_canonical.
Qed.

Lemma bytes_ok_repeat b n : b < 256 -> bytes_ok (repeat b n) = true.
Proof.
  intros H. apply forallb_forall. intros x Hx. apply repeat_spec in Hx. subst x. now apply N.ltb_lt.
Qed.

(* a run of one byte holds no sync word unless the byte is ff and also passes the sync2 test (none does) *)
Lemma no_sync_in_repeat b n : (b =? 255) && is_sync2 b = false -> no_sync_in (repeat b n) = true.
Proof.
  intros H. induction n as [|n IH]; [reflexivity|]. cbn [repeat no_sync_in]. rewrite IH, andb_true_r.
  destruct n; cbn [repeat]; [now rewrite andb_false_r|now rewrite H].
Qed.

Lemma no_sync_in_zeros_app n l : no_sync_in (repeat 0 n ++ l) = no_sync_in l.
Proof. induction n as [|n IH]; [reflexivity|exact IH]. Qed.

Lemma adts_junk_enum n :
  (n <= 187)%nat ->
  junk_ok (junk_zero n) = true /\ junk_ok (junk_ff n) = true /\ junk_ok (junk_zero_ff n) = true.
Proof.
  intros Hn. unfold junk_zero, junk_ff. repeat split.
  - apply junk_ok_true; [now rewrite repeat_length|now apply bytes_ok_repeat|now apply no_sync_in_repeat].
  - apply junk_ok_true; [now rewrite repeat_length|now apply bytes_ok_repeat|now apply no_sync_in_repeat].
  - destruct n as [|m]; [reflexivity|]. cbn [junk_zero_ff]. apply junk_ok_true.
    + rewrite app_length, repeat_length. cbn [length]. lia.
    + rewrite bytes_ok_app, bytes_ok_repeat by reflexivity. reflexivity.
    + now rewrite no_sync_in_zeros_app.
Qed.

(* the 188-iteration window is sharp for the all-zero junk: 188 junk bytes are not searched through *)
Lemma adts_junk_188_refused :
  decode_adts (junk_zero 188 ++ encode_adts (len_header 371)) = Err.
Proof. vm_compute. reflexivity. Qed.
