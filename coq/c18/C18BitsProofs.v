(* C18BitsProofs.v — bit-list lemmas: Read inverts Write field by field, unpack inverts pack. *)
From V.lib Require Import Base.
From V.c18 Require Import C18Model.

Lemma to_bits_length w v : length (to_bits w v) = w.
Proof. induction w as [|w IH]; cbn [to_bits length]; [reflexivity|now rewrite IH]. Qed.

Lemma fold_to_bits w : forall v acc,
  fold_left bit_step (to_bits w v) acc = acc * 2 ^ N.of_nat w + v mod 2 ^ N.of_nat w.
Proof.
  induction w as [|w IH]; intros v acc.
  - cbn [to_bits fold_left]. change (N.of_nat 0) with 0. rewrite N.pow_0_r, N.mod_1_r. lia.
  - cbn [to_bits fold_left]. rewrite IH. unfold bit_step.
    rewrite N.testbit_spec'.
    rewrite Nat2N.inj_succ, N.pow_succ_r'.
    rewrite (N.mul_comm 2 (2 ^ N.of_nat w)).
    rewrite (N.mod_mul_r v (2 ^ N.of_nat w) 2) by (try apply N.pow_nonzero; discriminate).
    ring.
Qed.

Lemma take_bits_app w : forall l acc rest,
  length l = w -> take_bits w acc (l ++ rest) = Some (fold_left bit_step l acc, rest).
Proof.
  induction w as [|w IH]; intros l acc rest Hl.
  - destruct l; [reflexivity|discriminate].
  - destruct l as [|b t]; [discriminate|]. cbn [take_bits app fold_left].
    apply IH. now injection Hl.
Qed.

Lemma take_to_bits w v rest :
  take_bits w 0 (to_bits w v ++ rest) = Some (v mod 2 ^ N.of_nat w, rest).
Proof.
  rewrite take_bits_app by apply to_bits_length. rewrite fold_to_bits, N.mul_0_l, N.add_0_l. reflexivity.
Qed.

Lemma rd_to_bits w v rest :
  rd w (mkR (to_bits w v ++ rest) false) = (v mod 2 ^ N.of_nat w, mkR rest false).
Proof. unfold rd. cbn [rerr rbits]. rewrite take_to_bits. reflexivity. Qed.

Lemma rd_to_bits_small w v rest :
  v < 2 ^ N.of_nat w -> rd w (mkR (to_bits w v ++ rest) false) = (v, mkR rest false).
Proof. intros H. rewrite rd_to_bits. now rewrite N.mod_small. Qed.

Lemma rd_err w l : rd w (mkR l true) = (0, mkR l true).
Proof. reflexivity. Qed.

(* one byte: to_bits 8 inverts from_bits on 8 bits *)
Lemma to_bits_from_bits8 b7 b6 b5 b4 b3 b2 b1 b0 :
  to_bits 8 (from_bits [b7; b6; b5; b4; b3; b2; b1; b0]) = [b7; b6; b5; b4; b3; b2; b1; b0].
Proof. destruct b7, b6, b5, b4, b3, b2, b1, b0; reflexivity. Qed.

Lemma unpack_app a b : unpack (a ++ b) = unpack a ++ unpack b.
Proof. unfold unpack. apply flat_map_app. Qed.

Lemma unpack_cons x l : unpack (x :: l) = to_bits 8 x ++ unpack l.
Proof. reflexivity. Qed.

Lemma unpack_length l : length (unpack l) = (8 * length l)%nat.
Proof.
  induction l as [|x t IH]; [reflexivity|].
  rewrite unpack_cons, app_length, to_bits_length, IH. cbn [length]. lia.
Qed.

Lemma unpack_pack_n : forall n l, length l = (8 * n)%nat -> unpack (pack l) = l.
Proof.
  induction n as [|n IH]; intros l Hl.
  - destruct l; [reflexivity|discriminate].
  - do 8 (destruct l as [|? l]; [cbn [length] in Hl; lia|]).
    cbn [pack]. rewrite unpack_cons, to_bits_from_bits8. cbn [app]. do 8 f_equal.
    apply IH. cbn [length] in Hl. lia.
Qed.

Lemma unpack_pack l : (length l mod 8 = 0)%nat -> unpack (pack l) = l.
Proof. intros H. apply (unpack_pack_n (length l / 8)). lia. Qed.

Lemma flush_aligned l : (length (flush l) mod 8 = 0)%nat.
Proof. unfold flush, pad_len. rewrite app_length, repeat_length. lia. Qed.

Lemma pad_len_lt n : (pad_len n < 8)%nat.
Proof. unfold pad_len. apply Nat.mod_upper_bound. discriminate. Qed.

Lemma unpack_pack_flush l : unpack (pack (flush l)) = l ++ repeat false (pad_len (length l)).
Proof. rewrite unpack_pack by apply flush_aligned. reflexivity. Qed.

(* packed bytes are bytes *)
Lemma from_bits8_lt b7 b6 b5 b4 b3 b2 b1 b0 : from_bits [b7; b6; b5; b4; b3; b2; b1; b0] < 256.
Proof. destruct b7, b6, b5, b4, b3, b2, b1, b0; reflexivity. Qed.

Lemma pack_bytes_ok_n : forall n l, (length l <= n)%nat -> bytes_ok (pack l) = true.
Proof.
  induction n as [|n IH]; intros l Hl.
  - destruct l; [reflexivity|cbn [length] in Hl; lia].
  - do 8 (destruct l as [|? l]; [reflexivity|]).
    cbn [pack]. rewrite bytes_ok_cons. unfold byte_ok.
    pose proof (from_bits8_lt b b0 b1 b2 b3 b4 b5 b6) as Hb. apply N.ltb_lt in Hb. rewrite Hb.
    cbn [andb]. apply IH. cbn [length] in Hl. lia.
Qed.

Lemma pack_bytes_ok l : bytes_ok (pack l) = true.
Proof. apply (pack_bytes_ok_n (length l)). lia. Qed.

(* reading one byte of an unpacked byte string *)
Lemma rd8_unpack b l rest :
  rd 8 (mkR (unpack (b :: l) ++ rest) false) = (b mod 256, mkR (unpack l ++ rest) false).
Proof. rewrite unpack_cons, <- app_assoc. apply (rd_to_bits 8). Qed.
