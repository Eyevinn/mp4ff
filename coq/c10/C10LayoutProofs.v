(* C10LayoutProofs.v — fillTrakOutsAndByteRanges: for any number of tracks with arbitrary chunk interleaving, the new
   mdat payload (the concatenation of the byte ranges) holds, at every new chunk offset, exactly the bytes of the kept
   (possibly truncated) chunk of the input file. *)
From V.lib Require Import Base.
From V.c09 Require Import C09Model C09Spec C09BaseProofs C09SttsProofs C09StscProofs.
From V.c10 Require Import C10Model C10RlProofs.

Definition out_bytes (file : list N) (ranges : list (N * N)) : list N :=
  concat (map (fun r => sublist file (fst r) (snd r + 1 - fst r)) ranges).

Lemma skipn_skipn_local {A} (l : list A) a b : skipn a (skipn b l) = skipn (a + b) l.
Proof.
  revert l; induction b as [|b IH]; intros l; [rewrite Nat.add_0_r; reflexivity|].
  destruct l as [|x t]; [rewrite !skipn_nil; reflexivity|].
  rewrite Nat.add_succ_r. cbn [skipn]. apply IH.
Qed.

Lemma sublist_add {A} (l : list A) s a b : sublist l s (a + b) = sublist l s a ++ sublist l (s + a) b.
Proof.
  unfold sublist. replace (N.to_nat (a + b)) with (N.to_nat a + N.to_nat b)%nat by lia.
  replace (N.to_nat (s + a)) with (N.to_nat a + N.to_nat s)%nat by lia.
  rewrite <- skipn_skipn_local. generalize (skipn (N.to_nat s) l) as m. intros m.
  rewrite firstn_skipn_comm. rewrite <- (firstn_skipn (N.to_nat a) (firstn (N.to_nat a + N.to_nat b) m)) at 1.
  f_equal. rewrite firstn_firstn. f_equal. apply Nat.min_l, Nat.le_add_r.
Qed.

Lemma lenN_sublist {A} (l : list A) s n : s + n <= lenN l -> lenN (sublist l s n) = n.
Proof.
  unfold sublist, lenN. intros. rewrite firstn_length, skipn_length, Nat.min_l; [apply N2Nat.id|].
  apply Nat.le_add_le_sub_l. lia.
Qed.

Lemma sublist_app_l {A} (l1 l2 : list A) s n : s + n <= lenN l1 -> sublist (l1 ++ l2) s n = sublist l1 s n.
Proof.
  unfold sublist, lenN. intros H. rewrite skipn_app, firstn_app, skipn_length.
  replace (N.to_nat n - (length l1 - N.to_nat s))%nat with 0%nat by lia. rewrite firstn_O, app_nil_r. reflexivity.
Qed.

Lemma sublist_app_r {A} (l1 l2 : list A) n : sublist (l1 ++ l2) (lenN l1) n = firstnN l2 n.
Proof.
  unfold sublist, lenN, firstnN. rewrite Nat2N.id, skipn_app, skipn_all, Nat.sub_diag. reflexivity.
Qed.

Lemma firstnN_sublist {A} (l : list A) s n : firstnN (sublist l s n) n = sublist l s n.
Proof. unfold firstnN, sublist. rewrite firstn_firstn. f_equal. lia. Qed.

Lemma sublist_sublist {A} (l : list A) s n a b : a + b <= n -> sublist (sublist l s n) a b = sublist l (s + a) b.
Proof.
  intros H. unfold sublist. rewrite skipn_firstn_comm, firstn_firstn.
  rewrite skipn_skipn_local. f_equal; [lia|]. f_equal. lia.
Qed.

Lemma out_bytes_app file r1 r2 : out_bytes file (r1 ++ r2) = out_bytes file r1 ++ out_bytes file r2.
Proof. unfold out_bytes. rewrite map_app, concat_app. reflexivity. Qed.

Lemma out_bytes_one file s e : out_bytes file [(s, e)] = sublist file s (e + 1 - s).
Proof. apply app_nil_r. Qed.

(* every byte range lies in the file (start >= 1, possibly empty: end = start - 1) *)
Definition range_in (file : list N) (r : N * N) : Prop := 1 <= fst r /\ fst r <= snd r + 1 /\ snd r + 1 <= lenN file.

(* the ranges collected so far; the bound keeps `end + 1` of addRange from wrapping *)
Definition ranges_ok (file : list N) (rs : list (N * N)) : Prop :=
  Forall (fun r => range_in file r /\ snd r + 1 < 18446744073709551616) rs.

(* addRange appends the bytes of the new range, whether it is merged into the previous range or not *)
Lemma add_range_spec file rs s sz : 1 <= s -> s + sz <= lenN file -> s + sz < 18446744073709551616 ->
  ranges_ok file rs ->
  out_bytes file (rev (add_range rs s (s + sz - 1))) = out_bytes file (rev rs) ++ sublist file s sz /\
  ranges_ok file (add_range rs s (s + sz - 1)).
Proof.
  intros Hs Hf Hb Hrs.
  assert (Hnew : forall s0, 1 <= s0 <= s -> range_in file (s0, s + sz - 1) /\ s + sz - 1 + 1 < 18446744073709551616)
    by (unfold range_in; cbn [fst snd]; lia).
  assert (Hone : out_bytes file [(s, s + sz - 1)] = sublist file s sz)
    by (rewrite out_bytes_one; f_equal; lia).
  unfold add_range. destruct rs as [|[s0 e0] t]; [split; [exact Hone|constructor; [apply Hnew; lia|constructor]]|].
  inversion Hrs as [|? ? [[H1 [H2 H3]] H4] Ht]; subst. cbn [fst snd] in *. rewrite u64_small by lia.
  destruct (e0 + 1 =? s) eqn:E; cbn [rev]; rewrite !out_bytes_app.
  - split; [|constructor; [apply Hnew; lia|exact Ht]].
    rewrite <- app_assoc, !out_bytes_one. f_equal.
    replace (s + sz - 1 + 1 - s0) with ((e0 + 1 - s0) + sz) by lia. rewrite sublist_add. do 2 f_equal. lia.
  - split; [rewrite Hone; reflexivity|constructor; [apply Hnew; lia|exact Hrs]].
Qed.

Lemma total_size_split tb a b n : 1 <= a -> a <= b + 1 -> b <= n ->
  S_total_size tb a n = S_total_size tb a b + S_total_size tb (b + 1) n.
Proof.
  intros Ha Hab Hbn. unfold S_total_size.
  replace (n + 1 - a) with ((b + 1 - a) + (n - b)) by lia. rewrite sublist_add, sumN_app.
  replace (a - 1 + (b + 1 - a)) with b by lia. replace (b + 1 - 1) with b by lia.
  replace (n + 1 - (b + 1)) with (n - b) by lia. reflexivity.
Qed.

Lemma total_size_mono tb a b b' : 1 <= a -> b <= b' -> S_total_size tb a b <= S_total_size tb a b'.
Proof.
  intros Ha Hb. destruct (N.le_gt_cases a (b + 1)) as [L|G]; [rewrite (total_size_split tb a b b') by lia; lia|].
  unfold S_total_size at 1. replace (b + 1 - a) with 0 by lia. cbn. lia.
Qed.

Definition static_ok (file : list N) (t : trak_state) : Prop :=
  consistent (ts_tb t) = true /\ ts_id t <> 0 /\ ts_last_chunk t <= nchunks (ts_tb t) /\
  (forall c o, S_chunk_offset (ts_tb t) c = Some o -> 1 <= o < 4611686018427387904) /\
  (forall c o cnt, S_chunk_offset (ts_tb t) c = Some o -> S_chunk_count (ts_tb t) c = Some cnt ->
                   o + S_total_size (ts_tb t) (S_first_in_chunk (ts_tb t) c) (S_first_in_chunk (ts_tb t) c + cnt - 1)
                   <= lenN file).

Definition next_ok (t : trak_state) : Prop := 1 <= ts_next t <= ts_last_chunk t + 1.

(* size of the kept part of chunk c of a track cut at sample ls *)
Definition csize (tb : tables) (ls c : N) : N :=
  match S_chunk_count tb c with
  | Some cnt => S_total_size tb (S_first_in_chunk tb c) (N.min (S_first_in_chunk tb c + cnt - 1) ls)
  | None => 0
  end.

Lemma track_offset_expr tb c : consistent tb = true -> 1 <= c <= nchunks tb ->
  exists o, S_chunk_offset tb c = Some o /\
    match t_stco tb with
    | Some l => get_offset l c
    | None => match t_co64 tb with Some l => get_offset l c | None => Panic end
    end = Ok o.
Proof.
  intros H Hc. destruct (get_offset_correct tb H c Hc) as [o [Ho1 Ho2]]. exists o. split; [exact Ho1|].
  unfold trak_chunk_offset in Ho2. destruct (consistent_parts tb H) as [_ [_ [_ [_ [_ [Hof _]]]]]].
  unfold offsets_ok in Hof. destruct (t_stco tb); [exact Ho2|]. destruct (t_co64 tb); [exact Ho2|discriminate].
Qed.

(* one track of the inner loop: the candidate stays, or is replaced by this track when it still has a chunk
   and that chunk starts earlier *)
Lemma pick_min_cons file t rest i best : static_ok file t -> next_ok t ->
  exists b1, pick_min (t :: rest) i best = pick_min rest (i + 1) b1 /\
    (b1 = best \/ exists o, ts_next t <= ts_last_chunk t /\ S_chunk_offset (ts_tb t) (ts_next t) = Some o /\
                            b1 = (o, ts_id t, i) /\ o < fst (fst best)) /\
    (forall o, ts_next t <= ts_last_chunk t -> S_chunk_offset (ts_tb t) (ts_next t) = Some o -> fst (fst b1) <= o) /\
    fst (fst b1) <= fst (fst best).
Proof.
  intros [Hc [_ [Hlc _]]] [Hn _]. cbn [pick_min]. destruct (ts_last_chunk t <? ts_next t) eqn:E.
  - exists best. split; [reflexivity|]. split; [left; reflexivity|]. split; lia.
  - destruct (track_offset_expr (ts_tb t) (ts_next t) Hc ltac:(lia)) as [o [Ho1 Ho2]]. rewrite Ho2. cbn [rbind].
    destruct (o <? fst (fst best)) eqn:Eo; eexists; (split; [reflexivity|]); cbn [fst].
    + split; [right; exists o; repeat split; lia || assumption|].
      split; [|lia]. intros o' _ Ho'. rewrite Ho1 in Ho'. injection Ho' as <-. lia.
    + split; [left; reflexivity|]. split; [|lia]. intros o' _ Ho'. rewrite Ho1 in Ho'. injection Ho' as <-. lia.
Qed.

(* the inner loop: the earliest next chunk among the tracks that still have one, if it starts before `best` *)
Lemma pick_min_spec file ts : Forall (static_ok file) ts -> Forall next_ok ts -> forall i best,
  exists best', pick_min ts i best = Ok best' /\
    (best' = best \/ exists j t o, nthN ts j = Some t /\ ts_next t <= ts_last_chunk t /\
                                    S_chunk_offset (ts_tb t) (ts_next t) = Some o /\
                                    best' = (o, ts_id t, i + j) /\ o < fst (fst best)) /\
    (forall j t o, nthN ts j = Some t -> ts_next t <= ts_last_chunk t ->
                   S_chunk_offset (ts_tb t) (ts_next t) = Some o -> fst (fst best') <= o) /\
    fst (fst best') <= fst (fst best).
Proof.
  induction ts as [|t rest IH]; intros Hst Hn i best.
  - exists best. split; [reflexivity|]. split; [left; reflexivity|]. split; [intros; discriminate|lia].
  - inversion Hst as [|? ? Ht Hrest]; subst. inversion Hn as [|? ? Hnt Hnrest]; subst.
    destruct (pick_min_cons file t rest i best Ht Hnt) as [b1 [-> [B1 [C1 D1]]]].
    destruct (IH Hrest Hnrest (i + 1) b1) as [b' [A [B [C D]]]]. exists b'. split; [exact A|]. split; [|split; [|lia]].
    + destruct B as [->|[j [t' [o [Hj [He [Ho [-> Hlt]]]]]]]].
      * destruct B1 as [->|[o [He [Ho [-> Hlt]]]]]; [left; reflexivity|].
        right. exists 0, t, o. rewrite N.add_0_r. auto.
      * right. exists (j + 1), t', o. rewrite nthN_S. repeat split; try assumption; [f_equal|]; lia.
    + intros j t' o Hj He Ho. cbn [nthN] in Hj. destruct (j =? 0).
      * injection Hj as <-. specialize (C1 o He Ho). lia.
      * exact (C _ _ _ Hj He Ho).
Qed.

(* the track whose chunk is taken: its next chunk goes to the current output offset *)
Definition advance (cur : N) (t : trak_state) : trak_state :=
  mkTS (ts_id t) (ts_tb t) (ts_last_sample t) (ts_last_chunk t) (u32 (ts_next t + 1)) (ts_offsets t ++ [cur]).

Lemma next_advance file cur t : static_ok file t -> ts_next t <= ts_last_chunk t ->
  ts_next (advance cur t) = ts_next t + 1.
Proof.
  intros [Hc [_ [Hlc _]]] Hn. destruct (stsc_facts (ts_tb t) Hc) as [_ [_ [_ [_ [_ [_ [_ [HC _]]]]]]]].
  apply u32_small. lia.
Qed.

(* the loop stops when every track has placed its last chunk; otherwise it takes the next chunk of some track t,
   at input offset o, and goes on from the state below *)
Lemma fill_loop_step file fuel ts rs first cur : Forall (static_ok file) ts -> Forall next_ok ts ->
  (Forall (fun t => ts_next t = ts_last_chunk t + 1) ts /\ fill_loop (S fuel) ts rs first cur = Ok (ts, rev rs, first)) \/
  exists j t o, nthN ts j = Some t /\ ts_next t <= ts_last_chunk t /\ S_chunk_offset (ts_tb t) (ts_next t) = Some o /\
    fill_loop (S fuel) ts rs first cur
    = fill_loop fuel (upd_ts ts j (advance (if first =? 0 then o else cur)))
                (add_range rs o (sub64 (u64 (o + csize (ts_tb t) (ts_last_sample t) (ts_next t))) 1))
                (if first =? 0 then o else first)
                (u64 ((if first =? 0 then o else cur) + csize (ts_tb t) (ts_last_sample t) (ts_next t))).
Proof.
  intros Hst Hnx. cbn [fill_loop].
  destruct (pick_min_spec file ts Hst Hnx 0 (4611686018427387904, 0, 0)) as [best' [-> [Hcase [Hmin _]]]]. cbn [rbind].
  destruct Hcase as [->|[j [t [o [Hj [Hel [Ho [-> _]]]]]]]].
  - (* no candidate: a track that still had a chunk would have had it below 2^62 *)
    left. split; [|reflexivity]. rewrite Forall_forall in *. intros t Hin.
    destruct (In_nthN _ _ Hin) as [j Hj]. destruct (Hst t Hin) as [Hc [_ [Hlc [Hoff _]]]]. destruct (Hnx t Hin) as [Hn1 Hn2].
    destruct (N.le_gt_cases (ts_next t) (ts_last_chunk t)) as [Hel|Hgt]; [|lia].
    destruct (track_offset_expr (ts_tb t) (ts_next t) Hc ltac:(lia)) as [o [Ho _]].
    specialize (Hmin j t o Hj Hel Ho). specialize (Hoff _ o Ho). cbn [fst] in Hmin. lia.
  - right. exists j, t, o. rewrite N.add_0_l. repeat (split; [assumption|]).
    pose proof (nthN_In _ _ _ Hj) as Hin. rewrite Forall_forall in Hst, Hnx.
    destruct (Hst t Hin) as [Hc [Hid [Hlc _]]]. destruct (Hnx t Hin) as [Hn1 _].
    destruct (ts_id t =? 0) eqn:Eid; [lia|]. rewrite (idx_Some _ _ _ Hj). cbn [rbind].
    destruct (get_chunk_correct (ts_tb t) Hc (ts_next t) ltac:(lia)) as [cnt [Hcnt [_ [Hbd ->]]]].
    cbn [rbind ch_start ch_n].
    destruct (stsc_facts (ts_tb t) Hc) as [_ [_ [_ [_ [_ [_ [HN _]]]]]]].
    unfold csize. rewrite Hcnt. set (fic := S_first_in_chunk (ts_tb t) (ts_next t)) in *.
    assert (Hfic1 : 1 <= fic) by (unfold fic, S_first_in_chunk; lia).
    rewrite u32_small, sub32_small by lia. rewrite total_size_correct by (assumption || lia). cbn [rbind].
    destruct (first =? 0); reflexivity.
Qed.

Lemma nthN_upd_ts ts i f : forall j, nthN (upd_ts ts i f) j = if j =? i then option_map f (nthN ts j) else nthN ts j.
Proof.
  revert i; induction ts as [|t rest IH]; intros i j; [cbn; destruct (j =? i); reflexivity|].
  cbn [upd_ts]. destruct (i =? 0) eqn:Ei.
  - cbn [nthN]. destruct (j =? 0) eqn:Ej.
    + destruct (j =? i) eqn:E; [reflexivity|lia].
    + destruct (j =? i) eqn:E; [lia|reflexivity].
  - cbn [nthN]. destruct (j =? 0) eqn:Ej.
    + destruct (j =? i) eqn:E; [lia|reflexivity].
    + rewrite IH. destruct (j - 1 =? i - 1) eqn:E1, (j =? i) eqn:E2; try lia; reflexivity.
Qed.

Lemma Forall_upd_ts (Q Q' : trak_state -> Prop) ts i f t :
  Forall Q ts -> nthN ts i = Some t -> (forall x, Q x -> Q' x) -> Q' (f t) -> Forall Q' (upd_ts ts i f).
Proof.
  revert i; induction ts as [|x rest IH]; intros i HF Hi Himp Hf; [constructor|].
  inversion HF as [|? ? Hx Hrest]; subst. cbn [upd_ts nthN] in *. destruct (i =? 0).
  - injection Hi as ->. constructor; [exact Hf|]. eapply Forall_impl; [exact Himp|exact Hrest].
  - constructor; [apply Himp, Hx|]. apply (IH (i - 1)); assumption.
Qed.

(* a sum over the tracks when one track changes *)
Lemma sum_upd_ts (g : trak_state -> N) ts i f t :
  nthN ts i = Some t -> sumN (map g (upd_ts ts i f)) + g t = sumN (map g ts) + g (f t).
Proof.
  revert i; induction ts as [|x rest IH]; intros i Hi; [discriminate|].
  cbn [upd_ts nthN] in *. destruct (i =? 0).
  - injection Hi as ->. cbn [map sumN]. lia.
  - cbn [map sumN]. specialize (IH (i - 1) Hi). lia.
Qed.

Lemma map_upd_ts {B} (g : trak_state -> B) ts i f : (forall t, g (f t) = g t) -> map g (upd_ts ts i f) = map g ts.
Proof.
  intros Hf. revert i; induction ts as [|x rest IH]; intros i; [reflexivity|].
  cbn [upd_ts]. destruct (i =? 0); cbn [map]; [rewrite Hf; reflexivity|rewrite IH; reflexivity].
Qed.

(* sample bytes of the chunks not yet placed: bounds the output still to come *)
Definition P (t : trak_state) : N :=
  S_total_size (ts_tb t) (S_first_in_chunk (ts_tb t) (ts_next t)) (nsamples (ts_tb t)).
Definition pot (ts : list trak_state) : N := sumN (map P ts).

Definition static (t : trak_state) : N * tables * N * N := (ts_id t, ts_tb t, ts_last_sample t, ts_last_chunk t).

Definition chunk_placed (file out : list N) (first : N) (t : trak_state) (c no : N) : Prop :=
  exists oo, S_chunk_offset (ts_tb t) c = Some oo /\ first <= no /\
    no - first + csize (ts_tb t) (ts_last_sample t) c <= lenN out /\
    sublist out (no - first) (csize (ts_tb t) (ts_last_sample t) c)
    = sublist file oo (csize (ts_tb t) (ts_last_sample t) c).

(* firstOffset = 0 means that no chunk has been placed yet *)
Definition dyn_ok (file out : list N) (first : N) (t : trak_state) : Prop :=
  next_ok t /\ lenN (ts_offsets t) + 1 = ts_next t /\ (first = 0 -> ts_offsets t = []) /\
  forall i no, nthN (ts_offsets t) i = Some no -> chunk_placed file out first t (i + 1) no.

Lemma chunk_placed_extend file out x first t c no :
  chunk_placed file out first t c no -> chunk_placed file (out ++ x) first t c no.
Proof.
  intros [oo [A [B [C D]]]]. exists oo. split; [exact A|]. split; [exact B|]. split.
  - rewrite lenN_app. lia.
  - rewrite sublist_app_l by lia. exact D.
Qed.

(* more output, and firstOffset set to o if it was not set: the chunks placed so far stay where they are *)
Lemma dyn_ok_extend file out x first o t : o <> 0 ->
  dyn_ok file out first t -> dyn_ok file (out ++ x) (if first =? 0 then o else first) t.
Proof.
  intros Ho [A [B [C D]]]. split; [exact A|]. split; [exact B|]. destruct (first =? 0) eqn:E.
  - rewrite (C ltac:(lia)). split; [reflexivity|]. intros i no Hi. discriminate.
  - split; [lia|]. intros i no Hi. apply chunk_placed_extend, D, Hi.
Qed.

(* the chunk taken in one iteration: where it lies in the file, and what it takes off the track's potential *)
Lemma next_chunk_bounds file cur t o : static_ok file t -> 1 <= ts_next t <= ts_last_chunk t ->
  S_chunk_offset (ts_tb t) (ts_next t) = Some o ->
  1 <= o < 4611686018427387904 /\ o + csize (ts_tb t) (ts_last_sample t) (ts_next t) <= lenN file /\
  P (advance cur t) + csize (ts_tb t) (ts_last_sample t) (ts_next t) <= P t.
Proof.
  intros Hst Hn Ho. unfold P. rewrite (next_advance file cur t Hst) by lia. destruct Hst as [Hc [_ [Hlc [Hoff Hfile]]]].
  destruct (get_chunk_correct (ts_tb t) Hc (ts_next t) ltac:(lia)) as [cnt [Hcnt [Hc1 [Hbd _]]]].
  specialize (Hfile _ o cnt Ho Hcnt). unfold csize. cbn [advance ts_tb]. rewrite Hcnt.
  rewrite (fic_succ (ts_tb t) (ts_next t) cnt ltac:(lia) Hcnt).
  set (fic := S_first_in_chunk (ts_tb t) (ts_next t)) in *.
  assert (Hfic1 : 1 <= fic) by (unfold fic, S_first_in_chunk; lia).
  pose proof (total_size_mono (ts_tb t) fic (N.min (fic + cnt - 1) (ts_last_sample t)) (fic + cnt - 1) Hfic1 ltac:(lia)).
  rewrite (total_size_split (ts_tb t) fic (fic + cnt - 1) (nsamples (ts_tb t))) by lia.
  replace (fic + cnt - 1 + 1) with (fic + cnt) by lia. split; [exact (Hoff _ o Ho)|]. lia.
Qed.

(* the track whose chunk is appended to the output, at cur = firstOffset + the output so far *)
Lemma dyn_ok_advance file out first t o : static_ok file t -> dyn_ok file out first t -> ts_next t <= ts_last_chunk t ->
  S_chunk_offset (ts_tb t) (ts_next t) = Some o -> 1 <= o ->
  o + csize (ts_tb t) (ts_last_sample t) (ts_next t) <= lenN file ->
  dyn_ok file (out ++ sublist file o (csize (ts_tb t) (ts_last_sample t) (ts_next t))) (if first =? 0 then o else first)
         (advance ((if first =? 0 then o else first) + lenN out) t).
Proof.
  intros Hst Hdy Hn Ho Ho1 Hfile. apply (dyn_ok_extend file out [] first o t ltac:(lia)) in Hdy. rewrite app_nil_r in Hdy.
  assert (Hf : (if first =? 0 then o else first) <> 0) by (destruct (first =? 0) eqn:E; lia).
  set (first2 := if first =? 0 then o else first) in *. clearbody first2.
  destruct Hdy as [[Hn1 _] [Hlen [_ Hpl]]].
  pose proof (next_advance file (first2 + lenN out) t Hst Hn) as Hnext. unfold dyn_ok, next_ok. rewrite Hnext.
  cbn [advance ts_offsets ts_last_chunk]. rewrite lenN_app, lenN_cons, lenN_nil.
  split; [lia|]. split; [lia|]. split; [lia|]. intros i no Hi. rewrite nthN_app in Hi.
  destruct (i <? lenN (ts_offsets t)) eqn:Ei.
  - apply (chunk_placed_extend file out _ first2 t), Hpl, Hi.
  - cbn [nthN] in Hi. destruct (i - lenN (ts_offsets t) =? 0) eqn:Ei2; [|discriminate]. injection Hi as <-.
    replace (i + 1) with (ts_next t) by lia. exists o. cbn [advance ts_tb ts_last_sample].
    split; [exact Ho|]. split; [lia|]. replace (first2 + lenN out - first2) with (lenN out) by lia. split.
    + rewrite lenN_app, lenN_sublist by lia. lia.
    + rewrite sublist_app_r. apply firstnN_sublist.
Qed.

(* B bounds the output to come, so that currentOutOffset does not wrap *)
Lemma fill_loop_inv file B : 4611686018427387904 + B < 18446744073709551616 ->
  forall fuel ts rs first cur ts' ranges first',
  Forall (static_ok file) ts ->
  Forall (dyn_ok file (out_bytes file (rev rs)) first) ts ->
  (first = 0 -> rs = []) ->
  (first <> 0 -> cur = first + lenN (out_bytes file (rev rs)) /\ first < 4611686018427387904) ->
  ranges_ok file rs ->
  lenN (out_bytes file (rev rs)) + pot ts <= B ->
  fill_loop fuel ts rs first cur = Ok (ts', ranges, first') ->
  Forall (static_ok file) ts' /\ Forall (dyn_ok file (out_bytes file ranges) first') ts' /\
  Forall (fun t => ts_next t = ts_last_chunk t + 1) ts' /\ map static ts' = map static ts /\
  Forall (range_in file) ranges /\ first' < 4611686018427387904 /\ lenN (out_bytes file ranges) <= B.
Proof.
  intros HB. induction fuel as [|fuel IH]; intros ts rs first cur ts' ranges first' Hst Hdy Hf0 Hf1 Hrs Hpot Hrun;
    [discriminate|].
  assert (Hnx : Forall next_ok ts) by (eapply Forall_impl; [|exact Hdy]; intros t [A _]; exact A).
  destruct (fill_loop_step file fuel ts rs first cur Hst Hnx) as [[Hfin Heq]|[j [t [o [Hj [Hel [Ho Heq]]]]]]];
    rewrite Heq in Hrun; clear Heq.
  - injection Hrun as <- <- <-. split; [exact Hst|]. split; [exact Hdy|]. split; [exact Hfin|]. split; [reflexivity|].
    split; [apply Forall_rev; eapply Forall_impl; [|exact Hrs]; intros r [A _]; exact A|]. split; [|lia].
    destruct (N.eq_dec first 0) as [->|Hne]; [lia|]. apply Hf1, Hne.
  - pose proof (nthN_In _ _ _ Hj) as Hin.
    assert (Hstt : static_ok file t) by (rewrite Forall_forall in Hst; exact (Hst t Hin)).
    assert (Hdyt : dyn_ok file (out_bytes file (rev rs)) first t) by (rewrite Forall_forall in Hdy; exact (Hdy t Hin)).
    assert (Hn1 : 1 <= ts_next t) by (destruct Hdyt as [[A _] _]; exact A).
    assert (Hcur : (if first =? 0 then o else cur) = (if first =? 0 then o else first) + lenN (out_bytes file (rev rs)) /\
                   (if first =? 0 then o else first) <> 0).
    { destruct (next_chunk_bounds file 0 t o Hstt ltac:(lia) Ho) as [Ho1 _]. destruct (first =? 0) eqn:E0.
      - rewrite (Hf0 ltac:(lia)). cbn. lia.
      - destruct (Hf1 ltac:(lia)). lia. }
    destruct Hcur as [Hcur Hf2]. rewrite Hcur in Hrun.
    destruct (next_chunk_bounds file ((if first =? 0 then o else first) + lenN (out_bytes file (rev rs))) t o Hstt
                ltac:(lia) Ho) as [Ho1 [Hfile HP]].
    pose proof (dyn_ok_advance file _ first t o Hstt Hdyt Hel Ho ltac:(lia) Hfile) as Hdyt2.
    pose proof (fun x => dyn_ok_extend file (out_bytes file (rev rs)) (sublist file o (csize (ts_tb t) (ts_last_sample t) (ts_next t)))
                                       first o x ltac:(lia)) as Hext.
    pose proof (sum_upd_ts P ts j (advance ((if first =? 0 then o else first) + lenN (out_bytes file (rev rs)))) t Hj) as Hpu.
    fold (pot ts) in Hpu. pose proof (In_le_sum_map P ts t Hin) as HPle. fold (pot ts) in HPle.
    assert (Hf2b : (if first =? 0 then o else first) < 4611686018427387904)
      by (destruct (first =? 0) eqn:E0; [lia|apply Hf1; lia]).
    set (first2 := if first =? 0 then o else first) in *. clearbody first2.
    set (sz := csize (ts_tb t) (ts_last_sample t) (ts_next t)) in *. clearbody sz.
    set (out := out_bytes file (rev rs)) in *.
    rewrite (u64_small (o + sz)), sub64_small, u64_small in Hrun by lia.
    destruct (add_range_spec file rs o sz ltac:(lia) Hfile ltac:(lia) Hrs) as [Hbytes Hrs2]. fold out in Hbytes.
    apply (IH _ _ _ _ _ _ _) in Hrun.
    + destruct Hrun as [R1 [R2 [R3 [R4 R5]]]]. split; [exact R1|]. split; [exact R2|]. split; [exact R3|].
      split; [|exact R5]. rewrite R4. apply map_upd_ts. reflexivity.
    + apply (Forall_upd_ts _ _ ts j _ t Hst Hj); [auto|exact Hstt].
    + rewrite Hbytes. apply (Forall_upd_ts _ _ ts j _ t Hdy Hj); [exact Hext|exact Hdyt2].
    + lia.
    + intros _. rewrite Hbytes, lenN_app, lenN_sublist by lia. split; [lia|exact Hf2b].
    + exact Hrs2.
    + rewrite Hbytes, lenN_app, lenN_sublist by lia. unfold pot in *. lia.
Qed.

Lemma fill_loop_from_start file ts0 fuel ts' ranges first' :
  Forall (static_ok file) ts0 -> Forall (fun t => ts_next t = 1 /\ ts_offsets t = []) ts0 ->
  4611686018427387904 + pot ts0 < 18446744073709551616 ->
  fill_loop fuel ts0 [] 0 0 = Ok (ts', ranges, first') ->
  Forall (static_ok file) ts' /\ Forall (dyn_ok file (out_bytes file ranges) first') ts' /\
  Forall (fun t => ts_next t = ts_last_chunk t + 1) ts' /\ map static ts' = map static ts0 /\
  Forall (range_in file) ranges /\ first' < 4611686018427387904 /\ lenN (out_bytes file ranges) <= pot ts0.
Proof.
  intros Hst Hinit HB Hrun.
  apply (fill_loop_inv file (pot ts0) HB fuel ts0 [] 0 0 ts' ranges first' Hst); [|reflexivity|lia|constructor|cbn; lia|exact Hrun].
  eapply Forall_impl; [|exact Hinit]. intros t [A B]. unfold dyn_ok, next_ok. rewrite A, B, lenN_nil.
  split; [lia|]. split; [lia|]. split; [reflexivity|]. intros i no Hi. discriminate.
Qed.

Lemma layout_correct file ts0 fuel ts' ranges first' :
  Forall (static_ok file) ts0 -> Forall (fun t => ts_next t = 1 /\ ts_offsets t = []) ts0 ->
  4611686018427387904 + pot ts0 < 18446744073709551616 ->
  fill_loop fuel ts0 [] 0 0 = Ok (ts', ranges, first') ->
  map static ts' = map static ts0 /\
  Forall (fun t => static_ok file t /\ ts_next t = ts_last_chunk t + 1 /\ lenN (ts_offsets t) = ts_last_chunk t /\
                   forall c, 1 <= c <= ts_last_chunk t ->
                             exists no, nthN (ts_offsets t) (c - 1) = Some no /\
                                        chunk_placed file (out_bytes file ranges) first' t c no) ts'.
Proof.
  intros Hst Hinit HB Hrun.
  destruct (fill_loop_from_start file ts0 fuel ts' ranges first' Hst Hinit HB Hrun) as [R1 [R2 [R3 [R4 _]]]].
  split; [exact R4|]. rewrite Forall_forall in *. intros t Hin.
  destruct (R2 t Hin) as [_ [B [_ C]]]. pose proof (R3 t Hin) as D. cbn beta in D.
  split; [apply R1, Hin|]. split; [exact D|]. split; [lia|].
  intros c Hc. destruct (nthN_lt_Some (ts_offsets t) (c - 1)) as [no Hno]; [lia|].
  exists no. split; [exact Hno|]. replace c with (c - 1 + 1) at 1 by lia. apply C, Hno.
Qed.

(* the byte ranges lie in the file, firstOffset < 2^62 and the new payload is no longer than the sample bytes of the tracks *)
Lemma layout_ranges file ts0 fuel ts' ranges first' :
  Forall (static_ok file) ts0 -> Forall (fun t => ts_next t = 1 /\ ts_offsets t = []) ts0 ->
  4611686018427387904 + pot ts0 < 18446744073709551616 ->
  fill_loop fuel ts0 [] 0 0 = Ok (ts', ranges, first') ->
  Forall (range_in file) ranges /\ first' < 4611686018427387904 /\ lenN (out_bytes file ranges) <= pot ts0.
Proof.
  intros Hst Hinit HB Hrun. apply (fill_loop_from_start file ts0 fuel ts' ranges first' Hst Hinit HB Hrun).
Qed.

(* every kept sample: its bytes are found in the new mdat at (new chunk offset + sizes of the chunk's earlier samples),
   unchanged from the input file at (old chunk offset + the same sum) = S_offset_of *)
Lemma sample_placed file out first t c no n : static_ok file t ->
  chunk_placed file out first t c no -> S_chunk_of (ts_tb t) n = Some c -> 1 <= n <= ts_last_sample t ->
  n <= nsamples (ts_tb t) ->
  exists off sz, S_offset_of (ts_tb t) n = Some off /\ S_size (ts_tb t) n = Some sz /\
    sublist out (no - first + S_total_size (ts_tb t) (S_first_in_chunk (ts_tb t) c) (n - 1)) sz = sublist file off sz.
Proof.
  intros [Hc _] [oo [Hoo [Hfirst [Hlen Heq]]]] Hch Hn HnN.
  destruct (chunk_of_sample_correct (ts_tb t) Hc n ltac:(lia)) as [c' [Hc' [HcR [Hfn [[cnt [Hcnt Hlast]] _]]]]].
  rewrite Hch in Hc'. injection Hc' as <-.
  destruct (size_correct (ts_tb t) Hc n ltac:(lia)) as [sz [Hsz _]].
  set (fic := S_first_in_chunk (ts_tb t) c) in *.
  assert (Hfic1 : 1 <= fic) by (unfold fic, S_first_in_chunk; lia).
  exists (oo + S_total_size (ts_tb t) fic (n - 1)), sz.
  split; [unfold S_offset_of; rewrite Hch, Hoo; reflexivity|]. split; [exact Hsz|].
  (* size of sample n as a one-sample total *)
  assert (Hone : S_total_size (ts_tb t) n n = sz).
  { unfold S_total_size, sublist. unfold S_size in Hsz. destruct (n =? 0) eqn:E0; [lia|].
    replace (n + 1 - n) with 1 by lia.
    rewrite (skipn_nthN _ _ _ Hsz). change (N.to_nat 1) with 1%nat. cbn [firstn sumN]. lia. }
  assert (Hsplit : S_total_size (ts_tb t) fic n = S_total_size (ts_tb t) fic (n - 1) + sz).
  { rewrite (total_size_split (ts_tb t) fic (n - 1) n) by lia. replace (n - 1 + 1) with n by lia. rewrite Hone. reflexivity. }
  assert (Hcs : S_total_size (ts_tb t) fic n <= csize (ts_tb t) (ts_last_sample t) c).
  { unfold csize. rewrite Hcnt. fold fic. apply total_size_mono; [exact Hfic1|]. lia. }
  rewrite <- (sublist_sublist out (no - first) (csize (ts_tb t) (ts_last_sample t) c)) by lia.
  rewrite Heq. rewrite sublist_sublist by lia. reflexivity.
Qed.
