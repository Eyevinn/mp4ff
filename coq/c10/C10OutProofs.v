(* C10OutProofs.v — what is written besides the tables: header durations (writeUptoMdat) and the new mdat (writeMdat). *)
From V.lib Require Import Base.
From V.c08 Require C08Model C08ReadProofs.
From V.c09 Require Import C09Model C09Spec C09BaseProofs.
From V.c10 Require Import C10Model C10LayoutProofs.

(* writeUptoMdat: header durations do not exceed the originals *)
Definition tk_dur (t : hdr_trak) : N := fst (fst t).
Definition md_dur (t : hdr_trak) : N := snd (fst t).
Definition tk_elst (t : hdr_trak) : option (list (list N)) := snd t.

Definition elst_le (new old : option (list (list N))) : Prop :=
  match new, old with
  | Some gn, Some go => Forall2 (Forall2 N.le) gn go
  | None, None => True
  | _, _ => False
  end.

Lemma sub64_le a b : b <= a -> sub64 a b <= a.
Proof. intros H. unfold sub64. lia. Qed.

Lemma upd_seg_le diff d : upd_seg diff d <= d.
Proof. unfold upd_seg. destruct (diff <? d) eqn:E; [apply sub64_le; lia|lia]. Qed.

Lemma map_upd_seg_le diff l : Forall2 N.le (map (upd_seg diff) l) l.
Proof. induction l as [|x t IH]; cbn [map]; constructor; [apply upd_seg_le|exact IH]. Qed.

Lemma hdr_traks_le nd : forall tks tks', hdr_traks nd tks = Ok tks' ->
  Forall2 (fun old new => tk_dur new = nd /\ nd <= tk_dur old /\ md_dur new = md_dur old /\ elst_le (tk_elst new) (tk_elst old))
          tks tks'.
Proof.
  induction tks as [|[[prev md] ed] r IH]; intros tks' H; cbn [hdr_traks] in H.
  - injection H as <-. constructor.
  - destruct (prev <? nd) eqn:E; [discriminate|].
    destruct (hdr_traks nd r) as [r'| | |] eqn:Er; try discriminate. cbn [rbind] in H. injection H as <-.
    constructor; [|apply IH; reflexivity].
    unfold tk_dur, md_dur, tk_elst. cbn [fst snd]. split; [reflexivity|]. split; [lia|]. split; [reflexivity|].
    destruct ed as [gs|]; [|exact I]. cbn [elst_le].
    induction gs as [|g gt IHg]; cbn [map]; constructor; [apply map_upd_seg_le|exact IHg].
Qed.

Lemma header_durations et ets mvts tks nd tks' :
  write_upto_mdat_durs et ets mvts tks = Ok (nd, tks') ->
  Forall2 (fun old new => tk_dur new = nd /\ nd <= tk_dur old /\ md_dur new = md_dur old /\ elst_le (tk_elst new) (tk_elst old))
          tks tks' /\
  (forall mv, (exists t, In t tks /\ tk_dur t <= mv) -> nd <= mv).
Proof.
  unfold write_upto_mdat_durs. intros H.
  destruct (div_go (u64 (et * mvts)) ets) as [nd0| | |] eqn:Ed; try discriminate. cbn [rbind] in H.
  destruct (hdr_traks nd0 tks) as [tk0| | |] eqn:Eh; try discriminate. cbn [rbind] in H. injection H as <- <-.
  pose proof (hdr_traks_le nd0 tks tk0 Eh) as HF. split; [exact HF|].
  intros mv [t [Hin Hle]]. clear Eh Ed.
  induction HF as [|o n lo ln Hon HF' IH]; [contradiction|].
  destruct Hin as [->|Hin]; [lia|apply IH, Hin].
Qed.

(* the original mvhd duration is not compared with anything: a witness where the output's mvhd duration exceeds it *)
Lemma mvhd_duration_refuted :
  exists et ets mvts mv tks nd tks', write_upto_mdat_durs et ets mvts tks = Ok (nd, tks') /\ mv < nd /\
    Forall (fun t => mv < tk_dur t) tks.
Proof.
  exists 2602, 1000, 1000, 1739, [(3000, 7, None)], 2602, [(2602, 7, None)].
  split; [vm_compute; reflexivity|]. split; [lia|]. constructor; [unfold tk_dur; cbn [fst]; lia|constructor].
Qed.

(* writeMdat: an 8-byte header + exactly the bytes of the ranges *)
Definition range_len (r : N * N) : N := snd r + 1 - fst r.
Definition ranges_len (rs : list (N * N)) : N := sumN (map range_len rs).

Lemma sub64_range s e : s <= e + 1 -> e + 1 < 18446744073709551616 -> u64 (sub64 e s + 1) = e + 1 - s.
Proof. intros H1 H2. unfold sub64, u64. lia. Qed.

Lemma ranges_size_sum file : forall rs acc, Forall (range_in file) rs -> lenN file < 9223372036854775808 ->
  acc + ranges_len rs < 18446744073709551616 -> ranges_size rs acc = acc + ranges_len rs.
Proof.
  induction rs as [|[s e] t IH]; intros acc Hall Hf Hb; [unfold ranges_len; cbn; lia|].
  inversion Hall as [|? ? H0 Ht]; subst. unfold range_in in H0. cbn [fst snd] in H0.
  unfold ranges_len in *. cbn [map sumN] in *. unfold range_len at 1 in Hb. unfold range_len at 1. cbn [fst snd] in *.
  cbn [ranges_size]. rewrite sub64_range by lia. rewrite (u64_small (acc + (e + 1 - s))) by lia.
  rewrite IH by (try assumption; lia). lia.
Qed.

Lemma out_bytes_len file : forall rs, Forall (range_in file) rs -> lenN (out_bytes file rs) = ranges_len rs.
Proof.
  induction rs as [|[s e] t IH]; intros Hall; [reflexivity|].
  inversion Hall as [|? ? H0 Ht]; subst. unfold range_in in H0. cbn [fst snd] in H0.
  change (out_bytes file ((s, e) :: t)) with (sublist file s (e + 1 - s) ++ out_bytes file t).
  rewrite lenN_app, (IH Ht), lenN_sublist by lia. unfold ranges_len. cbn [map sumN]. reflexivity.
Qed.

Lemma i64n_small x : x < 9223372036854775808 -> C08Model.i64n x = Z.of_N x.
Proof. intros H. unfold C08Model.i64n. destruct (x <? 9223372036854775808) eqn:E; [reflexivity|lia]. Qed.

Lemma copy_ranges_ok file zeof startPos large payloadLen : 0 < payloadLen -> lenN file < 9223372036854775808 ->
  forall rs, Forall (range_in file) rs ->
  copy_ranges file zeof (C08Model.mdat_lazy startPos large payloadLen) rs = Ok (out_bytes file rs).
Proof.
  intros Hp Hf. induction rs as [|[s e] t IH]; intros Hall; [reflexivity|].
  inversion Hall as [|? ? H0 Ht]; subst. unfold range_in in H0. cbn [fst snd] in H0.
  cbn [copy_ranges]. rewrite sub64_range, !i64n_small by lia.
  unfold C08Model.mdat_lazy in *. unfold C08Model.copy_data. cbn [C08Model.lazyDataSize].
  destruct (0 <? payloadLen) eqn:E; [|lia].
  unfold C08Model.rs_seek_start. destruct (Z.of_N s <? 0)%Z eqn:E2; [lia|]. cbn [rbind C08Model.rorc].
  rewrite N2Z.id.
  destruct (C08ReadProofs.copy_n_ok file zeof (C08Model.mkRS s []) (Z.of_N (e + 1 - s))) as [orc' Hc];
    [lia|cbn [C08Model.rpos]; lia|].
  rewrite Hc. cbn [rbind C08Model.rpos]. rewrite N2Z.id. rewrite (IH Ht). cbn [rbind].
  reflexivity.
Qed.

(* writeMdat once the ranges are copied: a payload that needs a 64-bit size is refused (EncodeHeaderWithSize(.., false)) *)
Lemma write_mdat_copied file zeof m rs : Forall (range_in file) rs -> lenN file < 9223372036854775808 ->
  ranges_len rs + 8 < 18446744073709551616 -> copy_ranges file zeof m rs = Ok (out_bytes file rs) ->
  write_mdat file zeof m rs =
  if ranges_len rs + 8 <? 4294967296 then Ok (C08Model.be32 (ranges_len rs + 8) ++ C08Model.name_mdat ++ out_bytes file rs)
  else Err.
Proof.
  intros Hall Hf Hb Hc. unfold write_mdat. rewrite (ranges_size_sum file rs 0 Hall Hf) by lia. rewrite N.add_0_l.
  rewrite (u64_small (ranges_len rs + 8)) by lia.
  destruct (4294967296 <=? ranges_len rs + 8) eqn:E; [destruct (ranges_len rs + 8 <? 4294967296) eqn:E'; [lia|reflexivity]|].
  destruct (ranges_len rs + 8 <? 4294967296) eqn:E'; [|lia].
  unfold C08Model.encode_header_with_size. cbn [negb andb]. rewrite E, Hc. cbn [rbind].
  rewrite (out_bytes_len file rs Hall), N.eqb_refl, (u32_small (ranges_len rs + 8)), <- app_assoc by lia. reflexivity.
Qed.

Lemma write_mdat_correct file zeof startPos large payloadLen rs :
  0 < payloadLen -> lenN file < 9223372036854775808 -> Forall (range_in file) rs ->
  ranges_len rs + 8 < 4294967296 ->
  write_mdat file zeof (C08Model.mdat_lazy startPos large payloadLen) rs
  = Ok (C08Model.be32 (ranges_len rs + 8) ++ C08Model.name_mdat ++ out_bytes file rs) /\
  lenN (C08Model.be32 (ranges_len rs + 8) ++ C08Model.name_mdat) = mdat_out_hdr /\
  lenN (out_bytes file rs) = ranges_len rs.
Proof.
  intros Hp Hf Hall Hb.
  rewrite (write_mdat_copied file zeof _ rs Hall Hf ltac:(lia) (copy_ranges_ok file zeof startPos large payloadLen Hp Hf rs Hall)).
  destruct (ranges_len rs + 8 <? 4294967296) eqn:E; [|lia].
  split; [reflexivity|]. split; [reflexivity|exact (out_bytes_len file rs Hall)].
Qed.
