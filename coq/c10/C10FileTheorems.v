(* C10FileTheorems.v — the theorems of C10 about the OUTPUT FILE of mp4ff-crop as bytes, on C01's box-tree model
   (C10TreeModel.v: crop_tool = decode the input file -> read the tables and headers out of the tree -> cropMP4 ->
   rebuild the boxes -> encode them -> writeMdat).  Kept apart from C10Theorems.v because this file depends on the
   whole of C01's development (a C01 rebuild only re-checks this file).  Each theorem is closed by `exact <lemma>`
   (C10TreeProofs.v) and followed by Print Assumptions. *)
From V.lib Require Import Base.
From V.c01 Require Import C01Codec C01Model C01FileModel C01FileExamples.
From V.c08 Require C08Model.
From V.c10 Require Import C10Model C10TreeModel C10TreeProofs C10TreeSizeProofs.

(* C01's decoder needs no more fuel than the structure of its result (need: one unit per nesting level and per sibling):
   a result obtained with any fuel is obtained with every fuel >= need.  (C01's fixed-point theorem re-decodes with the fuel of
   the input; the cropped file is SHORTER than its input, so this is what makes its decoding a theorem.) *)
Theorem C10_decoder_fuel_irrelevant : forall f bs t r, decode_box f bs = Ok (t, r) ->
  forall f', (need t <= f')%nat -> decode_box f' bs = Ok (t, r).
Proof. exact (fun f => proj1 (fuel_indep f)). Qed.
Print Assumptions C10_decoder_fuel_irrelevant.

(* every leaf the crop REBUILDS (stts ctts stsc stsz stco co64 stss sdtp elst mvhd tkhd) prints and parses: when its numbers
   fit their fields (leaf_fits) and its Size() is below 2^32, the encoder's bytes are Size() many and the decoder -- whatever
   follows them -- returns the same leaf (for stsc: with the sample description ids in the decoder's form, leaf_as_decoded) *)
Theorem C10_rebuilt_leaf_prints_and_parses : forall l, rebuilt l = true -> leaf_fits l = true -> size_leaf l < 4294967296 ->
  ppr (mk_leaf l) (mk_leaf (leaf_as_decoded l)).
Proof. exact ppr_rebuilt. Qed.
Print Assumptions C10_rebuilt_leaf_prints_and_parses.

(* C10_output_file_bytes: for EVERY input file (bytes) and every duration on which the tool model succeeds with output
   out_bytes -- no other hypothesis --: the input decodes (DecodeFileSR with its File-level rules) to boxes ts inside the
   modelled structure (scope); cropMP4 yields the boxes `out` = the non-mdat input boxes in input order (ftyp/moov/mdat and
   mdat-before-moov layouts alike) with the moov replaced by out_moov (out_tree), the byte ranges and sizeWithoutMdat; and
     out_bytes = pre ++ (32-bit size, "mdat") ++ body,
   pre = Box.Encode of the boxes of `out` in order (file_encode_w; the same bytes as encode_seq), body = what writeMdat
   copies, |body| = byteRanges.size(), 8 + |body| < 2^32. *)
Theorem C10_output_file_bytes : forall input ms out_bytes,
  crop_tool input ms = Some (Ok out_bytes) -> lenN out_bytes < 18446744073709551616 ->
  exists ts ci out ranges swm nd xs pre body,
    decode_file_sr input = FOk ts /\ scope input ts = Some ci /\ crop_tree ts ci ms = Ok (out, ranges, swm) /\
    out = out_tree nd xs ts /\ file_encode_w out = Ok pre /\ encode_seq false out = Ok pre /\
    write_mdat input true (ci_mdat ci) ranges = Ok (enc_hdr n_mdat (8 + lenN body) ++ body) /\
    lenN body = ranges_size ranges 0 /\ 8 + lenN body < 4294967296 /\
    out_bytes = pre ++ enc_hdr n_mdat (8 + lenN body) ++ body.
Proof. exact crop_tool_file_bytes. Qed.
Print Assumptions C10_output_file_bytes.

(* C10_output_size: the boxes mp4ff-crop encodes have, TOGETHER, exactly the sizeWithoutMdat that updateChunkOffsets used to
   shift the chunk offsets (as a uint64; no hypothesis beyond the modelled structure): replacing the table leaves changes the
   Size() of the tree by the difference of the table-box sizes (the optional tables of the output are those of the input, cropStts
   keeps as many deltas as counts), tkhd / mvhd / elst keep theirs, nothing else is touched.  With C10_output_file_bytes and
   |pre| = the sum of the Size() (C10_output_decodes): the new mdat payload starts at byte swm + 8 of the file written, the
   position the chunk offsets of C10_crop_end_to_end are relative to -- `rest` of that theorem is (Size() of the non-mdat input
   boxes) - (Size() of the input's table boxes), computed by scope. *)
Theorem C10_output_size : forall input ts ci ms out ranges swm, scope input ts = Some ci ->
  crop_tree ts ci ms = Ok (out, ranges, swm) -> swm = u64 (sumN (map size_box out)).
Proof. exact crop_tree_size. Qed.
Print Assumptions C10_output_size.

(* C10_output_decodes ("its output is a decodable progressive file"): when moreover the input boxes are exact (compact headers
   announcing Size(): C01's exact_box; every file the tools of the library write) and the numbers of the rebuilt leaves fit their
   fields (tree_fits, a boolean the check evaluates on every correspondence case): |pre| = the sum of the Size() of `out`, and
   C01's model of the box loop of DecodeFileSR, run on the bytes the tool wrote, returns exactly the boxes the tool encoded -- in the
   decoder's view (out_tree_decoded: captured reserved bytes = the encoder's values, stsc ids in the decoder's form) -- followed by
   ONE mdat box holding the copied bytes (output_ok, C10TreeProofs.v).  Uses C10_decoder_fuel_irrelevant, C01's stable_all for the
   boxes the crop does not touch, C10_rebuilt_leaf_prints_and_parses for the others (rw_out_moov: the whole moov). *)
Theorem C10_output_decodes : forall input ms out_bytes,
  bytes_ok input = true -> crop_tool input ms = Some (Ok out_bytes) -> lenN out_bytes < 18446744073709551616 ->
  exists ts ci out ranges swm, decode_file_sr input = FOk ts /\ scope input ts = Some ci /\
    crop_tree ts ci ms = Ok (out, ranges, swm) /\
    (forallb exact_box ts = true -> forallb tree_fits out = true ->
     output_ok input ci ts out ranges out_bytes /\
     (* with C10_output_size: the boxes encoded are exactly sizeWithoutMdat bytes, the new mdat starts right there *)
     exists pre tail, file_encode_w out = Ok pre /\ out_bytes = pre ++ tail /\ lenN pre = swm).
Proof. exact crop_tool_decodes_pos. Qed.
Print Assumptions C10_output_decodes.

(* what the correspondence check runs (crop_tool_report: one pass, also returns the observables the driver compares) is crop_tool *)
Theorem C10_report_is_tool : forall input ms,
  crop_tool input ms =
  match crop_tool_report input ms with
  | None => None
  | Some r => Some (match r with Ok x => Ok (fst (fst x)) | Err => Err | Panic => Panic | OutOfFuel => OutOfFuel end)
  end.
Proof. exact report_is_tool. Qed.
Print Assumptions C10_report_is_tool.

(* the hypotheses are satisfiable, on both layouts: C01's progressive example files (ftyp moov free mdat / ftyp mdat moov,
   one audio track of five samples) cropped at 50 ms keep three samples; the input boxes are exact, the rebuilt leaves fit,
   and decoding the output gives the rebuilt tree followed by the new mdat *)
Definition ex_ok (input : list N) : bool :=
  match decode_file_sr input, crop_tool input 50 with
  | FOk ts, Some (Ok out_bytes) =>
    match scope input ts with
    | Some ci =>
      match crop_tree ts ci 50 with
      | Ok (out, ranges, swm) =>
        forallb exact_box ts && forallb tree_fits out && (sumN (map size_box out) =? swm) &&
        match decode_file out_bytes with
        | Ok ts' => (Nat.eqb (length ts') (S (length out))) && (lenN out_bytes <? lenN input)
        | _ => false
        end
      | _ => false
      end
    | None => false
    end
  | _, _ => false
  end.
Example ex_output_moov_first : bytes_ok fx_prog_moov_first = true /\ ex_ok fx_prog_moov_first = true.
Proof. split; vm_compute; reflexivity. Qed.
Example ex_output_mdat_first : bytes_ok fx_prog_mdat_first = true /\ ex_ok fx_prog_mdat_first = true.
Proof. split; vm_compute; reflexivity. Qed.
