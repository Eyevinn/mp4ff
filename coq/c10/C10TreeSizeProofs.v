(* C10TreeSizeProofs.v — the boxes mp4ff-crop encodes have, together, exactly the sizeWithoutMdat that updateChunkOffsets
   used to shift the chunk offsets: replacing the table leaves changes the size of the tree by the difference of the
   table-box sizes, nothing else changes size. *)
From V.lib Require Import Base.
From V.c01 Require Import C01Codec C01Model C01FileModel C01TreeProofs.
From V.c09 Require Import C09Model C09BaseProofs.
From V.c10 Require Import C10Model C10FileModel C10RlProofs C10E2EProofs C10CropProofs C10FullProofs C10TreeModel C10TreeProofs.

Definition isS {A} (o : option A) : bool := match o with Some _ => true | None => false end.
Definition shape (tb : tables) : list bool :=
  [isS (t_ctts tb); isS (t_stco tb); isS (t_co64 tb); isS (t_stss tb); isS (t_sdtp tb)].
Definition stts_ok (tb : tables) : Prop := lenN (t_stts_count tb) = lenN (t_stts_delta tb).

(* tb' has the optional tables of tb, and as many stts deltas as counts (what put_table needs to write every table
   box of the input, at the size stbl_var_size computes) *)
Definition kept (tb tb' : tables) : Prop := shape tb' = shape tb /\ stts_ok tb'.

Lemma slice_to_len {A} (l : list A) k l' : slice_to l k = Ok l' -> lenN l' = k.
Proof.
  unfold slice_to. destruct (lenN l <? k) eqn:E; [discriminate|]. intros H. injection H as <-.
  apply lenN_firstnN. lia.
Qed.

(* cropStts keeps as many deltas as counts *)
Lemma crop_stts_lens cs ds last r : crop_stts cs ds last = Ok r -> lenN (fst r) = lenN (snd r).
Proof.
  unfold crop_stts. destruct (crop_stts_loop cs last 0 0) as [counted keep]. intros H.
  match type of H with rbind ?x _ = _ => destruct x as [cs1| | |]; try discriminate end. cbn [rbind] in H.
  destruct (slice_to cs1 keep) as [cs2| | |] eqn:E1; try discriminate. cbn [rbind] in H.
  destruct (slice_to ds keep) as [ds2| | |] eqn:E2; try discriminate. cbn [rbind] in H. injection H as <-.
  cbn [fst snd]. now rewrite (slice_to_len _ _ _ E1), (slice_to_len _ _ _ E2).
Qed.

Lemma crop_tables_kept tb last offs tb' : crop_tables tb last offs = Ok tb' -> kept tb tb'.
Proof.
  unfold crop_tables. intros H.
  destruct (crop_stts (t_stts_count tb) (t_stts_delta tb) last) as [st| | |] eqn:Es; try discriminate. cbn [rbind] in H.
  assert (Hct : exists ct, match t_ctts tb with None => Ok None | Some c => do c' <- crop_ctts c last; Ok (Some c') end = Ok ct /\
                           isS ct = isS (t_ctts tb)).
  { destruct (t_ctts tb) as [c|]; [|now exists None]. destruct (crop_ctts c last) as [c'| | |]; try discriminate. now exists (Some c'). }
  destruct Hct as [ct [Ect Hct]]. rewrite Ect in H. cbn [rbind] in H.
  destruct (crop_stsc (t_stsc tb) last) as [sc| | |]; try discriminate. cbn [rbind] in H.
  destruct (crop_stsz (t_stsz tb) last) as [sz| | |]; try discriminate. cbn [rbind] in H.
  assert (Hso : exists so, match t_stco tb with Some _ => do l <- update_stco offs; Ok (Some l) | None => Ok None end = Ok so /\
                           isS so = isS (t_stco tb)).
  { destruct (t_stco tb); [|now exists None]. destruct (update_stco offs) as [l'| | |]; try discriminate. now exists (Some l'). }
  destruct Hso as [so [Eso Hso]]. rewrite Eso in H. cbn [rbind] in H. injection H as <-.
  split; [|exact (crop_stts_lens _ _ _ _ Es)].
  unfold shape. cbn [t_ctts t_stco t_co64 t_stss t_sdtp]. rewrite Hct, Hso.
  destruct (t_co64 tb), (t_stss tb), (t_sdtp tb); reflexivity.
Qed.

Lemma shift_track_kept d tb0 tb tb' : shift_track d tb = Ok tb' -> kept tb0 tb -> kept tb0 tb'.
Proof.
  unfold shift_track, kept, stts_ok, shape. intros H [<- Hs]. destruct (t_stco tb) as [l|] eqn:Es.
  - destruct (shift_stco d l) as [l'| | |]; try discriminate. cbn [rbind] in H. injection H as <-.
    cbn [set_offsets t_stts_count t_stts_delta t_ctts t_stco t_co64 t_stss t_sdtp]. split; [reflexivity|exact Hs].
  - destruct (t_co64 tb) as [l|] eqn:Ec; [|discriminate]. injection H as <-.
    cbn [set_offsets t_stts_count t_stts_delta t_ctts t_stco t_co64 t_stss t_sdtp]. split; [reflexivity|exact Hs].
Qed.

(* cropMP4 succeeded: every track keeps its table boxes, the offsets were shifted by the size of the new tables, and
   there are as many track headers as before *)
Lemma crop_mp4_all_kept hs mvts tks ms rest et ets tbs ranges ks swm nd tks' :
  crop_mp4_all hs mvts tks ms rest = Ok (et, ets, (tbs, ranges, ks, swm), (nd, tks')) ->
  Forall2 kept (map (fun h => ti_tb (th_trak h)) hs) tbs /\ swm = size_without_mdat rest tbs /\
  length tks' = length tks.
Proof.
  intros H. destruct (crop_mp4_all_ok _ _ _ _ _ _ _ _ _ _ H) as [Hf [Hd _]].
  destruct (crop_mp4_file_inv _ _ _ _ _ _ Hf) as [ref [_ [_ [_ Ec]]]].
  split; [|split; [exact (proj2 (crop_to_time_sz_ok _ _ _ _ _ _ _ _ Ec))|symmetry; exact (Forall2_len _ _ _ Hd)]].
  destruct (crop_to_time_sz_inv _ _ _ _ _ _ _ _ Ec) as [ts0 [ts' [first [cropped [Ends [Efl [Eca [_ [Eu _]]]]]]]]].
  destruct (trak_ends_init _ _ _ _ Ends) as [_ [Htb _]].
  rewrite <- map_map, <- Htb, <- (fill_loop_tbs _ _ _ _ _ _ _ _ Efl). apply (proj1 (Forall2_map_l ts_tb kept ts' tbs)).
  eapply Forall2_compose; [|apply Forall_forall; intros t _; exact I|exact (crop_all_Forall2 _ _ Eca)
                            |exact (shift_tracks_Forall2 _ _ _ Eu)].
  intros t tb' tb2 _ H1 H2. exact (shift_track_kept _ _ _ _ H2 (crop_tables_kept _ _ _ _ H1)).
Qed.

Notation ssum l := (sumN (map size_box l)).

Lemma sum_filter_split (p : mbox -> bool) (F : mbox -> N) cs :
  sumN (map F cs) = sumN (map F (filter p cs)) + sumN (map F (filter (fun c => negb (p c)) cs)).
Proof. induction cs as [|c t IH]; [reflexivity|]. cbn [filter map sumN]. destruct (p c); cbn [negb map sumN]; lia. Qed.

Lemma filter_named_neg k k' cs : bytes_eqb k k' = false ->
  filter (named k') (filter (fun c => negb (named k c)) cs) = filter (named k') cs.
Proof.
  intros Hk. induction cs as [|c t IH]; [reflexivity|]. cbn [filter]. destruct (named k c) eqn:E; cbn [negb filter].
  - apply named_name in E. assert (Hn : named k' c = false) by (unfold named; now rewrite E). rewrite Hn. exact IH.
  - destruct (named k' c); [f_equal|]; exact IH.
Qed.

Definition any_named (ks : list (list N)) (c : mbox) : bool := existsb (fun k => named k c) ks.
Fixpoint distinct (ks : list (list N)) : bool :=
  match ks with [] => true | k :: t => forallb (fun k' => negb (bytes_eqb k k')) t && distinct t end.

Lemma filter_any_cons k t cs :
  filter (fun c => negb (any_named t c)) (filter (fun c => negb (named k c)) cs) =
  filter (fun c => negb (any_named (k :: t) c)) cs.
Proof.
  induction cs as [|c r IH]; [reflexivity|]. cbn [filter any_named existsb].
  destruct (named k c); cbn [negb orb filter]; [exact IH|]. fold (any_named t c).
  destruct (negb (any_named t c)); [f_equal|]; exact IH.
Qed.

Lemma partition_by_names (F : mbox -> N) ks : distinct ks = true -> forall cs,
  sumN (map F cs) = sumN (map (fun k => sumN (map F (filter (named k) cs))) ks) +
                    sumN (map F (filter (fun c => negb (any_named ks c)) cs)).
Proof.
  induction ks as [|k t IH]; intros Hd cs.
  - cbn [map sumN any_named existsb negb]. rewrite N.add_0_l.
    assert (Hid : forall l : list mbox, filter (fun _ => true) l = l) by (induction l as [|x l IHl]; [reflexivity|cbn [filter]; now rewrite IHl]).
    now rewrite Hid.
  - cbn [distinct] in Hd. apply andb_true_iff in Hd. destruct Hd as [Hk Ht].
    rewrite (sum_filter_split (named k) F cs). cbn [map sumN]. rewrite (IH Ht (filter (fun c => negb (named k c)) cs)).
    rewrite <- N.add_assoc. f_equal. f_equal.
    + f_equal. apply map_ext_in. intros k' Hin. rewrite filter_named_neg; [reflexivity|].
      apply negb_true_iff. exact (proj1 (forallb_forall _ _) Hk k' Hin).
    + now rewrite filter_any_cons.
Qed.

Definition names8 : list (list N) := [n_stts; n_ctts; n_stsc; n_stsz; n_stco; n_co64; n_stss; n_sdtp].

Lemma the_one_filter n cs x : the_one n cs = Some x -> filter (named n) cs = [x].
Proof. unfold the_one. destruct (filter (named n) cs) as [|a [|b t]]; try discriminate. now intros [= ->]. Qed.
Lemma at_most_one_filter n cs o : at_most_one n cs = Some o ->
  filter (named n) cs = match o with Some x => [x] | None => [] end.
Proof. unfold at_most_one. destruct (filter (named n) cs) as [|a [|b t]]; try discriminate; now intros [= <-]. Qed.

Lemma put_other tb' c : any_named names8 c = false -> put_table vI vU tb' c = c.
Proof.
  intros H. destruct c as [h l r|h cs|h p|h l r cs]; try reflexivity.
  destruct l; try reflexivity; try (cbn in H; discriminate).
  unfold any_named, names8, named in H. cbn [existsb box_name leaf_name] in H.
  apply orb_false_iff in H. destruct H as [_ H]. apply orb_false_iff in H. destruct H as [_ H].
  apply orb_false_iff in H. destruct H as [_ H]. apply orb_false_iff in H. destruct H as [_ H].
  apply orb_false_iff in H. destruct H as [Hco H]. apply orb_false_iff in H. destruct H as [Hc6 H].
  apply orb_false_iff in H. destruct H as [Hss _].
  cbn [put_table]. now rewrite Hco, Hc6, Hss.
Qed.

Lemma sum_ext_filter (F G : mbox -> N) (p : mbox -> bool) cs : (forall c, p c = true -> F c = G c) ->
  sumN (map F (filter p cs)) = sumN (map G (filter p cs)).
Proof. intros H. f_equal. apply map_ext_in. intros c Hin. apply filter_In in Hin. apply H, Hin. Qed.

Lemma tab_items_inv n w o r : tab_items n w o = Some r ->
  match o with
  | None => r = None
  | Some x => exists h v f items rs, x = MLeaf h (LTab n w v f items) rs /\ r = Some items
  end.
Proof.
  unfold tab_items. destruct o as [x|]; [|now intros [= <-]].
  destruct x as [h l rs| | |]; try discriminate. destruct l; try discriminate.
  destruct (bytes_eqb n name && Nat.eqb w w0) eqn:E; [|discriminate]. intros [= <-].
  apply andb_true_iff in E. destruct E as [E1 E2]. apply bytes_eqb_eq in E1. apply Nat.eqb_eq in E2. subst.
  now exists h, version, flags, items, rs.
Qed.

Lemma decode_step_len n es acc sg ids i r st' : stsc_decode_step n (es, acc, sg, ids) i r = Ok st' ->
  length (fst (fst (fst st'))) = S (length es).
Proof.
  unfold stsc_decode_step. destruct r as [[fc sp] sdi]. cbv zeta.
  destruct (sdi =? 0); [discriminate|]. destruct (i =? 0); [intros [= <-]; cbn [fst]; rewrite app_length; cbn; lia|].
  destruct (negb (sdi =? sg)); [|intros [= <-]; cbn [fst]; rewrite app_length; cbn; lia].
  destruct (negb (sg =? 0)); cbv beta iota;
    match goal with |- (if ?c then _ else _) = _ -> _ => destruct c; [discriminate|] end;
    intros [= <-]; cbn [fst]; rewrite app_length; cbn; lia.
Qed.
Lemma decode_loop_len n : forall raw st i st', stsc_decode_loop n st i raw = Ok st' ->
  length (fst (fst (fst st'))) = (length (fst (fst (fst st))) + length raw)%nat.
Proof.
  induction raw as [|r t IH]; intros st i st' H; cbn [stsc_decode_loop] in H.
  - injection H as <-. cbn [length]. lia.
  - destruct st as [[[es acc] sg] ids].
    destruct (stsc_decode_step n (es, acc, sg, ids) i r) as [st1| | |] eqn:E; try discriminate. cbn [rbind] in H.
    rewrite (IH _ _ _ H), (decode_step_len _ _ _ _ _ _ _ _ E). cbn [fst length]. lia.
Qed.
Lemma stsc_decode_len raw sc : stsc_decode raw = Ok sc -> lenN (sc_entries sc) = lenN raw.
Proof.
  unfold stsc_decode. destruct (stsc_decode_loop (lenN raw) ([], 1, 0, []) 0 raw) as [st| | |] eqn:E; try discriminate.
  cbn [rbind]. pose proof (decode_loop_len _ _ _ _ _ E) as Hl. destruct st as [[[es a] sg] ids]. intros [= <-].
  cbn [sc_entries fst length] in *. unfold lenN. lia.
Qed.

Lemma stbl_sizes cs tb tb' : tables_of_stbl cs = Some tb -> kept tb tb' ->
  ssum (map (put_table vI vU tb') cs) + stbl_var_size tb = ssum cs + stbl_var_size tb'.
Proof.
  intros H [Hsh Hst]. unfold tables_of_stbl in H.
  destruct (the_one n_stts cs) as [stts|] eqn:E1; [|discriminate]. cbn [obind] in H.
  destruct (at_most_one n_ctts cs) as [ctts|] eqn:E2; [|discriminate]. cbn [obind] in H.
  destruct (the_one n_stsc cs) as [stsc|] eqn:E3; [|discriminate]. cbn [obind] in H.
  destruct (the_one n_stsz cs) as [stsz|] eqn:E4; [|discriminate]. cbn [obind] in H.
  destruct (at_most_one n_stco cs) as [stco|] eqn:E5; [|discriminate]. cbn [obind] in H.
  destruct (at_most_one n_co64 cs) as [co64|] eqn:E6; [|discriminate]. cbn [obind] in H.
  destruct (at_most_one n_stss cs) as [stss|] eqn:E7; [|discriminate]. cbn [obind] in H.
  destruct (at_most_one n_sdtp cs) as [sdtp|] eqn:E8; [|discriminate]. cbn [obind] in H.
  destruct stts as [h1 l1 r1| | |]; try discriminate. destruct l1; try discriminate.
  destruct stsc as [h3 l3 r3| | |]; try discriminate. destruct l3; try discriminate.
  destruct stsz as [h4 l4 r4| | |]; try discriminate. destruct l4; try discriminate.
  match type of H with match ?x with _ => _ end = _ => destruct x as [sc| | |] eqn:Esc; try discriminate end.
  match type of H with obind ?x _ = _ => destruct x as [ct|] eqn:Ect; [|discriminate] end. cbn [obind] in H.
  destruct (tab_items n_stco 4 stco) as [so|] eqn:Eso; [|discriminate]. cbn [obind] in H.
  destruct (tab_items n_co64 8 co64) as [c6|] eqn:Ec6; [|discriminate]. cbn [obind] in H.
  destruct (tab_items n_stss 4 stss) as [sy|] eqn:Esy; [|discriminate]. cbn [obind] in H.
  match type of H with obind ?x _ = _ => destruct x as [sd|] eqn:Esd; [|discriminate] end. cbn [obind] in H.
  injection H as <-.
  apply the_one_filter in E1, E3, E4. apply at_most_one_filter in E2, E5, E6, E7, E8.
  pose proof (tab_items_inv _ _ _ _ Eso) as Iso. pose proof (tab_items_inv _ _ _ _ Ec6) as Ic6.
  pose proof (tab_items_inv _ _ _ _ Esy) as Isy.
  rewrite map_map.
  rewrite (partition_by_names (fun c => size_box (put_table vI vU tb' c)) names8 eq_refl cs).
  rewrite (partition_by_names size_box names8 eq_refl cs).
  rewrite (sum_ext_filter (fun c => size_box (put_table vI vU tb' c)) size_box (fun c => negb (any_named names8 c)) cs)
    by (intros c Hc; apply negb_true_iff in Hc; now rewrite put_other).
  unfold names8. cbn [map sumN]. rewrite E1, E2, E3, E4, E5, E6, E7, E8.
  unfold shape in Hsh. cbn [t_ctts t_stco t_co64 t_stss t_sdtp] in Hsh. injection Hsh as S1 S2 S3 S4 S5.
  unfold stbl_var_size. cbn [t_stts_count t_stts_delta t_ctts t_stsc t_stsz t_stco t_co64 t_stss t_sdtp].
  unfold stts_ok in Hst.
  (* the optional boxes, one by one *)
  assert (Hctts : sumN (map (fun c => size_box (put_table vI vU tb' c)) (match ctts with Some x => [x] | None => [] end))
                  + opt_size ctts_box_size ct
                  = sumN (map size_box (match ctts with Some x => [x] | None => [] end)) + opt_size ctts_box_size (t_ctts tb')).
  { destruct ctts as [x|]; [|injection Ect as <-; cbn [isS] in S1; destruct (t_ctts tb'); [discriminate|reflexivity]].
    destruct x as [hx lx rx| | |]; try discriminate. destruct lx; try discriminate. injection Ect as <-.
    cbn [isS] in S1. destruct (t_ctts tb') as [ct'|] eqn:Ect'; [|discriminate].
    cbn [map sumN put_table]. rewrite Ect'. cbn [size_box mk_leaf size_leaf opt_size]. unfold ctts_box_size, ctts_to_c09, ctts_offs_of.
    cbn [ct_off]. rewrite !lenN_map. lia. }
  assert (Htab : forall n w (o : option mbox) (r r' : option (list N)) (bs : list N -> N),
             (n = n_stco \/ n = n_co64 \/ n = n_stss) ->
             (forall v f items, size_leaf (LTab n w v f items) = bs items) ->
             match o with None => r = None | Some x => exists h v f items rs, x = MLeaf h (LTab n w v f items) rs /\ r = Some items end ->
             isS r' = isS r ->
             (if bytes_eqb n n_stco then t_stco tb' else if bytes_eqb n n_co64 then t_co64 tb'
              else if bytes_eqb n n_stss then t_stss tb' else None) = r' ->
             sumN (map (fun c => size_box (put_table vI vU tb' c)) (match o with Some x => [x] | None => [] end)) + opt_size bs r
             = sumN (map size_box (match o with Some x => [x] | None => [] end)) + opt_size bs r').
  { intros n w o r r' bs Hn Hbs Ho Hs Hsel. destruct o as [x|].
    - destruct Ho as (h & v & f & items & rs & -> & ->). cbn [isS] in Hs. destruct r' as [items'|]; [|discriminate].
      cbn [map sumN put_table]. rewrite Hsel. cbn [size_box mk_leaf opt_size]. rewrite !Hbs. lia.
    - subst r. cbn [isS] in Hs. destruct r'; [discriminate|]. reflexivity. }
  pose proof (Htab n_stco 4%nat stco so (t_stco tb') stco_box_size (or_introl eq_refl) (fun v f items => eq_refl) Iso S2 eq_refl) as Hstco.
  pose proof (Htab n_co64 8%nat co64 c6 (t_co64 tb') co64_box_size (or_intror (or_introl eq_refl)) (fun v f items => eq_refl) Ic6 S3 eq_refl) as Hco64.
  pose proof (Htab n_stss 4%nat stss sy (t_stss tb') stss_box_size (or_intror (or_intror eq_refl)) (fun v f items => eq_refl) Isy S4 eq_refl) as Hstss.
  assert (Hsdtp : sumN (map (fun c => size_box (put_table vI vU tb' c)) (match sdtp with Some x => [x] | None => [] end))
                  + opt_size sdtp_box_size sd
                  = sumN (map size_box (match sdtp with Some x => [x] | None => [] end)) + opt_size sdtp_box_size (t_sdtp tb')).
  { destruct sdtp as [x|]; [|injection Esd as <-; cbn [isS] in S5; destruct (t_sdtp tb'); [discriminate|reflexivity]].
    destruct x as [hx lx rx| | |]; try discriminate. destruct lx; try discriminate. injection Esd as <-.
    cbn [isS] in S5. destruct (t_sdtp tb') as [sd'|] eqn:Esd'; [|discriminate].
    cbn [map sumN put_table]. rewrite Esd'. cbn [size_box mk_leaf size_leaf opt_size]. unfold sdtp_box_size. lia. }
  cbn [map sumN put_table size_box mk_leaf size_leaf].
  unfold stts_box_size, stsc_box_size, stsz_box_size. cbn [sc_entries sz_uniform sz_number].
  assert (Hcomb : lenN (combine (t_stts_count tb') (t_stts_delta tb')) = lenN (t_stts_count tb')).
  { unfold lenN in *. rewrite combine_length. lia. }
  rewrite Hcomb, !lenN_map.
  assert (Hsce : lenN (sc_entries sc) = lenN entries0).
  { rewrite (stsc_decode_len _ _ Esc). apply C10TreeProofs.stsc_raw_len. }
  lia.
Qed.

Lemma ssum_map_one n (g : mbox -> mbox) cs x : filter (named n) cs = [x] ->
  (forall c, named n c = false -> size_box (g c) = size_box c) ->
  ssum (map g cs) + size_box x = ssum cs + size_box (g x).
Proof.
  intros Hf Hg. rewrite map_map.
  rewrite (sum_filter_split (named n) (fun c => size_box (g c)) cs), (sum_filter_split (named n) size_box cs), Hf.
  rewrite (sum_ext_filter (fun c => size_box (g c)) size_box (fun c => negb (named n c)) cs)
    by (intros c Hc; apply negb_true_iff in Hc; now apply Hg).
  cbn [map sumN]. lia.
Qed.

Lemma size_upd_cont g h cs : size_box (upd_cont vU g (MCont h cs)) = 8 + ssum (g cs).
Proof. reflexivity. Qed.

Lemma set_segs_len es : forall g, lenN (set_segs es g) = lenN es.
Proof.
  induction es as [|[[[d t] ri] rf] et IH]; intros g; [reflexivity|]. destruct g as [|x gt]; [reflexivity|].
  cbn [set_segs]. now rewrite !lenN_cons, IH.
Qed.
Lemma ssum_put_elsts cs : forall gs, ssum (put_elsts vI vU gs cs) = ssum cs.
Proof.
  induction cs as [|c t IH]; intros gs; [reflexivity|].
  destruct c as [h l r|h cs|h p|h l r cs]; cbn [put_elsts map sumN]; try (now rewrite IH).
  destruct l; cbn [put_elsts map sumN]; try (now rewrite IH).
  destruct gs as [|g gt]; cbn [put_elsts map sumN]; rewrite IH; [reflexivity|].
  cbn [size_box mk_leaf size_leaf]. now rewrite set_segs_len.
Qed.
Lemma size_set_tkhd nd c : size_box (set_tkhd_dur vI vU nd c) = size_box c.
Proof. destruct c as [h l r|h cs|h p|h l r cs]; try reflexivity. destruct l; reflexivity. Qed.
Lemma size_set_mvhd nd c : size_box (set_mvhd_dur vI vU nd c) = size_box c.
Proof. destruct c as [h l r|h cs|h p|h l r cs]; try reflexivity. destruct l; reflexivity. Qed.

(* stbl -> minf -> mdia -> trak *)
Lemma size_stbl tb tb' stbl : (exists h cs, stbl = MCont h cs) -> tables_of_stbl (children_of stbl) = Some tb ->
  kept tb tb' ->
  size_box (upd_cont vU (map (put_table vI vU tb')) stbl) + stbl_var_size tb = size_box stbl + stbl_var_size tb'.
Proof.
  intros (h & cs & ->) Ht Hk. cbn [children_of] in Ht. rewrite size_upd_cont. cbn [size_box].
  pose proof (stbl_sizes cs tb tb' Ht Hk). lia.
Qed.

Lemma size_level n (F : mbox -> mbox) t x d d' : (exists h cs, t = MCont h cs) -> the_one n (children_of t) = Some x ->
  size_box (F x) + d = size_box x + d' ->
  size_box (upd_cont vU (upd_named vU n F) t) + d = size_box t + d'.
Proof.
  intros (h & cs & ->) Ho HF. cbn [children_of] in Ho. rewrite size_upd_cont. cbn [size_box]. unfold upd_named.
  pose proof (ssum_map_one n (fun c => if named n c then F c else c) cs x (the_one_filter _ _ _ Ho)) as H.
  assert (Hx : named n x = true).
  { pose proof (the_one_filter _ _ _ Ho) as Hf. assert (In x (filter (named n) cs)) by (rewrite Hf; now left).
    apply filter_In in H0. apply H0. }
  specialize (H (fun c Hc => ltac:(cbv beta; now rewrite Hc))). cbv beta in H. rewrite Hx in H. lia.
Qed.

Lemma is_cont_dec (t : mbox) : {exists h cs, t = MCont h cs} + {forall h cs, t <> MCont h cs}.
Proof. destruct t; [right|left|right|right]; try (intros; discriminate). now exists h, cs. Qed.

Lemma size_trak tb' x' trak th x : trak_of trak = Some (th, x) -> kept (ti_tb (th_trak th)) tb' ->
  size_box (upd_trak vI vU tb' x' trak) + stbl_var_size (ti_tb (th_trak th)) = size_box trak + stbl_var_size tb'.
Proof.
  intros H Hk. unfold trak_of in H.
  destruct (the_one n_tkhd (children_of trak)) as [tkhd|] eqn:E1; [|discriminate]. cbn [obind] in H.
  destruct (at_most_one n_edts (children_of trak)) as [edts|] eqn:E2; [|discriminate]. cbn [obind] in H.
  destruct (the_one n_mdia (children_of trak)) as [mdia|] eqn:E3; [|discriminate]. cbn [obind] in H.
  destruct (the_one n_mdhd (children_of mdia)) as [mdhd|] eqn:E4; [|discriminate]. cbn [obind] in H.
  destruct (the_one n_hdlr (children_of mdia)) as [hdlr|] eqn:E5; [|discriminate]. cbn [obind] in H.
  destruct (the_one n_minf (children_of mdia)) as [minf|] eqn:E6; [|discriminate]. cbn [obind] in H.
  destruct (the_one n_stbl (children_of minf)) as [stbl|] eqn:E7; [|discriminate]. cbn [obind] in H.
  destruct (tables_of_stbl (children_of stbl)) as [tb|] eqn:E8; [|discriminate]. cbn [obind] in H.
  match type of H with obind ?o _ = _ => destruct o as [ed|]; [|discriminate] end. cbn [obind] in H.
  destruct tkhd as [h1 l1 r1| | |]; try discriminate. destruct l1; try discriminate.
  destruct mdhd as [h2 l2 r2| | |]; try discriminate. destruct l2; try discriminate.
  destruct hdlr as [h3 l3 r3| | |]; try discriminate. destruct l3; try discriminate.
  destruct trak as [|ht cst| |]; try discriminate. destruct mdia as [|hm csm| |]; try discriminate.
  destruct minf as [|hi csi| |]; try discriminate. destruct stbl as [|hs css| |]; try discriminate.
  injection H as <- <-. cbn [th_trak ti_tb] in *.
  destruct x' as [[nd md] ed']. rewrite upd_trak_enc.
  (* stbl, minf, mdia *)
  pose proof (size_stbl tb tb' (MCont hs css) ltac:(now exists hs, css) E8 Hk) as Hstbl.
  pose proof (size_level n_stbl (upd_cont vU (map (put_table vI vU tb'))) (MCont hi csi) (MCont hs css) _ _
                ltac:(now exists hi, csi) E7 Hstbl) as Hminf.
  pose proof (size_level n_minf (minf_enc tb') (MCont hm csm) (MCont hi csi) _ _ ltac:(now exists hm, csm) E6 Hminf) as Hmdia.
  fold (minf_enc tb') in Hminf. fold (mdia_enc tb') in Hmdia.
  (* trak: tkhd and edts keep their size *)
  rewrite size_upd_cont. cbn [size_box children_of] in *.
  set (g := fun c : mbox => if named n_tkhd c then set_tkhd_dur vI vU nd c
                             else if named n_edts c then upd_cont vU (put_elsts vI vU (match ed' with Some gs => gs | None => [] end)) c
                             else if named n_mdia c then mdia_enc tb' c else c).
  pose proof (ssum_map_one n_mdia g cst (MCont hm csm) (the_one_filter _ _ _ E3)) as Ht.
  assert (Hg : forall c, named n_mdia c = false -> size_box (g c) = size_box c).
  { intros c Hc. unfold g. destruct (named n_tkhd c); [apply size_set_tkhd|].
    destruct (named n_edts c); [|now rewrite Hc].
    destruct c as [|hc csc| |]; try reflexivity. rewrite size_upd_cont. cbn [size_box]. now rewrite ssum_put_elsts. }
  specialize (Ht Hg).
  assert (Hgm : g (MCont hm csm) = mdia_enc tb' (MCont hm csm)).
  { assert (Hn : named n_mdia (MCont hm csm) = true).
    { pose proof (the_one_filter _ _ _ E3) as Hf. assert (Hin : In (MCont hm csm) (filter (named n_mdia) cst)) by (rewrite Hf; now left).
      apply filter_In in Hin. apply Hin. }
    unfold g. pose proof (named_name _ _ Hn) as Hnm. unfold named in *. rewrite Hnm. reflexivity. }
  rewrite Hgm in Ht. fold g. change (size_box (MCont hm csm)) with (8 + ssum csm) in Ht. lia.
Qed.

(* moov *)
Definition vars_in (tr : list (trak_h * hdr_trak)) : N :=
  sumN (map (fun t => stbl_var_size (ti_tb (th_trak (fst t)))) tr).
Definition vars_out (xs : list (tables * hdr_trak)) : N := sumN (map (fun x => stbl_var_size (fst x)) xs).

Lemma size_moov_children nd cs : forall xs tr,
  all_some (map trak_of (filter (named n_trak) cs)) = Some tr ->
  Forall2 (fun t x => kept (ti_tb (th_trak (fst t))) (fst x)) tr xs ->
  ssum (upd_moov_children vI vU nd xs cs) + vars_in tr = ssum cs + vars_out xs.
Proof.
  induction cs as [|c t IH]; intros xs tr Ha H2.
  - cbn [filter map all_some] in Ha. injection Ha as <-. inversion H2; subst. reflexivity.
  - cbn [filter] in Ha. cbn [upd_moov_children]. destruct (named n_trak c) eqn:En.
    + cbn [map all_some] in Ha. destruct (trak_of c) as [[th x]|] eqn:Et; [|discriminate].
      destruct (all_some (map trak_of (filter (named n_trak) t))) as [tr'|] eqn:Ea; [|discriminate].
      injection Ha as <-. inversion H2 as [|? [tb' x'] ? xt Hk H2']; subst. cbn [fst] in *.
      unfold vars_in, vars_out in *. cbn [map sumN fst].
      pose proof (size_trak tb' x' c th x Et Hk). pose proof (IH xt tr' eq_refl H2'). lia.
    + cbn [map sumN]. pose proof (IH xs tr Ha H2).
      destruct (named n_mvhd c); [rewrite size_set_mvhd|]; lia.
Qed.

Lemma size_out_moov nd xs tr moov : (exists h cs, moov = MCont h cs) ->
  all_some (map trak_of (filter (named n_trak) (children_of moov))) = Some tr ->
  Forall2 (fun t x => kept (ti_tb (th_trak (fst t))) (fst x)) tr xs ->
  size_box (out_moov nd xs moov) + vars_in tr = size_box moov + vars_out xs.
Proof.
  intros (h & cs & ->) Ha H2. cbn [children_of] in Ha. unfold out_moov, out_moov_g. rewrite size_upd_cont. cbn [size_box].
  pose proof (size_moov_children nd cs xs tr Ha H2). lia.
Qed.

Lemma size_out_tree nd xs tr ts moov : the_one n_moov ts = Some moov -> (exists h cs, moov = MCont h cs) ->
  all_some (map trak_of (filter (named n_trak) (children_of moov))) = Some tr ->
  Forall2 (fun t x => kept (ti_tb (th_trak (fst t))) (fst x)) tr xs ->
  ssum (out_tree nd xs ts) + vars_in tr = ssum (non_mdat ts) + vars_out xs.
Proof.
  intros Ho Hm Ha H2. unfold out_tree.
  assert (Hf : filter (named n_moov) (non_mdat ts) = [moov]).
  { unfold non_mdat, is_mdat. rewrite (filter_named_neg n_mdat n_moov ts eq_refl). now apply the_one_filter. }
  pose proof (ssum_map_one n_moov (fun t => if named n_moov t then out_moov nd xs t else t) (non_mdat ts) moov Hf
                (fun c Hc => ltac:(cbv beta; now rewrite Hc))) as H.
  assert (Hn : named n_moov moov = true).
  { assert (Hin : In moov (filter (named n_moov) (non_mdat ts))) by (rewrite Hf; now left). apply filter_In in Hin. apply Hin. }
  cbv beta in H. rewrite Hn in H. pose proof (size_out_moov nd xs tr moov Hm Ha H2). lia.
Qed.

Lemma vars_out_sum tbs : forall tks, length tks = length tbs ->
  vars_out (combine tbs tks) = sumN (map stbl_var_size tbs).
Proof.
  induction tbs as [|tb t IH]; intros tks Hl; [reflexivity|]. destruct tks as [|k kt]; [discriminate|].
  unfold vars_out in *. cbn [combine fst map sumN]. cbn [length] in Hl. rewrite IH by lia. reflexivity.
Qed.
Lemma Forall2_combine_l {A B C} (Q : A -> B -> Prop) la lb : Forall2 Q la lb -> forall lc : list C,
  length lc = length lb -> Forall2 (fun a x => Q a (fst x)) la (combine lb lc).
Proof.
  induction 1 as [|a b la lb Hab _ IH]; intros lc Hl; [constructor|]. destruct lc as [|c lc]; [discriminate|].
  cbn [combine]. constructor; [exact Hab|]. apply IH. cbn [length] in Hl. lia.
Qed.

(* the boxes mp4ff-crop encodes have, together, the sizeWithoutMdat that shifted the chunk offsets (in uint64) *)
Lemma crop_tree_size input ts ci ms out ranges swm : scope input ts = Some ci ->
  crop_tree ts ci ms = Ok (out, ranges, swm) -> swm = u64 (sumN (map size_box out)).
Proof.
  intros Hsc Hct. unfold scope in Hsc.
  destruct (the_one n_moov ts) as [moov|] eqn:E1; [|discriminate]. cbn [obind] in Hsc.
  destruct (the_one n_mdat ts) as [mdat|] eqn:E2; [|discriminate]. cbn [obind] in Hsc.
  destruct (the_one n_mvhd (children_of moov)) as [mvhd|] eqn:E3; [|discriminate]. cbn [obind] in Hsc.
  destruct (all_some (map trak_of (filter (named n_trak) (children_of moov)))) as [tr|] eqn:E4; [|discriminate].
  cbn [obind] in Hsc.
  destruct moov as [|hm csm| |]; try discriminate.
  destruct mvhd as [h1 l1 r1| | |]; try discriminate. destruct l1; try discriminate.
  destruct mdat as [h2 l2 r2| | |]; try discriminate. destruct l2; try discriminate.
  match type of Hsc with (if ?c then _ else _) = _ => destruct c eqn:Ec; [|discriminate] end.
  apply andb_true_iff in Ec. destruct Ec as [_ Hle]. apply N.leb_le in Hle.
  injection Hsc as <-.
  unfold crop_tree in Hct. cbn [ci_hs ci_mvts ci_tks ci_rest] in Hct.
  destruct (file_frag ts); [discriminate|].
  match type of Hct with rbind ?x _ = _ => destruct x as [r| | |] eqn:Er; try discriminate end. cbn [rbind] in Hct.
  destruct r as [[[et ets] [[[tbs rg] ks] sw]] [nd tks']]. injection Hct as <- _ <-.
  destruct (crop_mp4_all_kept _ _ _ _ _ _ _ _ _ _ _ _ _ Er) as (Hkept & -> & Hlen).
  rewrite !map_length in Hlen. rewrite map_map in Hkept. apply (proj2 (Forall2_map_l _ kept tr tbs)) in Hkept.
  rewrite (Forall2_len _ _ _ Hkept) in Hlen.
  fold (out_tree nd (combine tbs tks') ts).
  pose proof (size_out_tree nd (combine tbs tks') tr ts (MCont hm csm) E1 ltac:(now exists hm, csm) E4
                (Forall2_combine_l _ _ _ Hkept tks' Hlen)) as Hsz.
  rewrite (vars_out_sum tbs tks' Hlen) in Hsz. unfold vars_in in Hsz.
  unfold size_without_mdat. f_equal. lia.
Qed.

(* C10_output_decodes with the position of the new mdat: the encoded boxes are exactly sizeWithoutMdat bytes long *)
Lemma crop_tool_decodes_pos input ms out_bytes :
  bytes_ok input = true -> crop_tool input ms = Some (Ok out_bytes) -> lenN out_bytes < 18446744073709551616 ->
  exists ts ci out ranges swm, decode_file_sr input = FOk ts /\ scope input ts = Some ci /\
    crop_tree ts ci ms = Ok (out, ranges, swm) /\
    (forallb exact_box ts = true -> forallb tree_fits out = true ->
     output_ok input ci ts out ranges out_bytes /\
     exists pre tail, file_encode_w out = Ok pre /\ out_bytes = pre ++ tail /\ lenN pre = swm).
Proof.
  intros Hok Htool Hlen.
  destruct (crop_tool_decodes _ _ _ Hok Htool Hlen) as (ts & ci & out & ranges & swm & Hd & Hs & Hc & H).
  exists ts, ci, out, ranges, swm. split; [assumption|]. split; [assumption|]. split; [assumption|].
  intros Hex Hfits. destruct (H Hex Hfits) as (nd & xs & pre & body & H2 & H3 & H4 & H5 & H6 & H7 & H8 & H9 & H10).
  split; [now exists nd, xs, pre, body|].
  exists pre, (enc_hdr n_mdat (8 + lenN body) ++ body). split; [assumption|]. split; [assumption|].
  rewrite (crop_tree_size _ _ _ _ _ _ _ Hs Hc), <- H5. unfold u64. symmetry. apply N.mod_small.
  rewrite H9, lenN_app in Hlen. lia.
Qed.
