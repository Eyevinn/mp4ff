(* C10FullProofs.v — cropMP4 as a whole (crop_mp4_file of C10FileModel.v): findEndTime composed into cropToTime, the hypotheses
   "the end time lies inside every track" DERIVED from the tool succeeding, sizeWithoutMdat computed from the cropped tables. *)
From V.lib Require Import Base.
From V.c09 Require Import C09Model C09Spec C09BaseProofs C09SttsProofs C09TimeProofs.
From V.c10 Require Import C10Model C10FileModel C10RlProofs C10EndProofs C10LayoutProofs C10OutProofs C10CropProofs.

(* every stts delta positive: deltas_positive of C09Spec without its exception (a single zero-duration last sample) *)
Definition deltas_strict (tb : tables) : bool :=
  deltas_positive (t_stts_count tb) (t_stts_delta tb) && negb (last (t_stts_delta tb) 0 =? 0).

(* GetSampleNrAtTime returning a sample number: the time lies inside the track *)
Lemma k_of_le tb t : consistent tb = true -> k_of tb t <= nsamples tb /\ nsamples tb + 1 < 4294967296.
Proof.
  intros H. destruct (stts_facts tb H) as [_ [_ [_ [_ LD]]]]. unfold k_of.
  destruct (consistent_parts tb H) as [B _]. unfold is_u32 in B.
  pose proof (lenN_filter_le (fun s => s <? t) (starts (durs tb) 0)) as Hf. rewrite lenN_starts in Hf. lia.
Qed.

(* a track without samples: GetSampleNrAtTime never returns a sample number *)
Lemma sum_zero_all : forall cs, sumN cs = 0 -> Forall (fun c => c = 0) cs.
Proof. induction cs as [|c t IH]; intros H; [constructor|]. cbn [sumN] in H. constructor; [lia|apply IH; lia]. Qed.

Lemma sat_loop_zero : forall cs ds t accN, Forall (fun c => c = 0) cs ->
  sample_at_time_loop cs ds t 0 accN = Panic \/ exists a, sample_at_time_loop cs ds t 0 accN = Ok (None, 0, a).
Proof.
  induction cs as [|c cs IH]; intros ds t accN H; [right; exists accN; reflexivity|].
  inversion H as [|? ? Hc Ht]; subst. destruct ds as [|d ds]; [left; reflexivity|].
  cbn [sample_at_time_loop]. rewrite N.mul_0_l, N.mul_0_r, N.add_0_r. change (u64 0) with 0.
  destruct (t <? 0) eqn:E; [lia|]. apply IH. exact Ht.
Qed.

Lemma sat_empty_track tb t nr : consistent tb = true -> nsamples tb = 0 ->
  stts_get_sample_nr_at_time (t_stts_count tb) (t_stts_delta tb) t = Ok nr -> False.
Proof.
  intros H HN Hr. destruct (stts_facts tb H) as [L [S _]]. rewrite HN in S.
  pose proof (sum_zero_all _ S) as Hz. unfold stts_get_sample_nr_at_time in Hr.
  destruct (sat_loop_zero (t_stts_count tb) (t_stts_delta tb) t 0 Hz) as [E|[a E]]; rewrite E in Hr; [discriminate|].
  cbn [rbind] in Hr.
  destruct (idx_m1 (t_stts_delta tb) (lenN (t_stts_count tb))) as [dl| | |]; try discriminate. cbn [rbind] in Hr.
  destruct (negb (dl =? 0)); [discriminate|].
  destruct (idx_m1 (t_stts_count tb) (lenN (t_stts_count tb))) as [cl| | |] eqn:Ec; try discriminate. cbn [rbind] in Hr.
  unfold idx_m1 in Ec. destruct (lenN (t_stts_count tb) =? 0); [discriminate|]. unfold idx in Ec.
  destruct (nthN (t_stts_count tb) (lenN (t_stts_count tb) - 1)) as [x|] eqn:En; [|discriminate]. injection Ec as <-.
  apply nthN_In in En. rewrite Forall_forall in Hz. rewrite (Hz x En) in Hr. cbn in Hr. discriminate.
Qed.

Lemma sat_inv tb : consistent tb = true -> deltas_strict tb = true -> forall t nr,
  stts_get_sample_nr_at_time (t_stts_count tb) (t_stts_delta tb) t = Ok nr ->
  1 <= nsamples tb /\ t < sumN (durs tb) /\ nr = 1 + k_of tb t /\ S_sample_at_time tb t = Some nr.
Proof.
  intros H Hd t nr Hr.
  assert (HN : 1 <= nsamples tb).
  { destruct (N.eq_dec (nsamples tb) 0) as [E|]; [|lia]. exfalso. exact (sat_empty_track tb t nr H E Hr). }
  split; [exact HN|].
  unfold deltas_strict in Hd. apply andb_prop in Hd. destruct Hd as [Hp Hl].
  destruct (stts_facts tb H) as [L _].
  rewrite (sample_at_time_correct tb H Hp HN t) in Hr.
  unfold S_sample_at_time in *. destruct (t <? sumN (durs tb)) eqn:E.
  - injection Hr as <-. split; [lia|]. split; reflexivity.
  - pose proof (last_expand_nonzero (t_stts_count tb) (t_stts_delta tb) L Hp ltac:(lia)) as G. fold (durs tb) in G.
    destruct (last (durs tb) 1 =? 0) eqn:E0; [lia|]. cbn [andb] in Hr. discriminate.
Qed.

Lemma find_trak_end_inv tb ts et ets r : consistent tb = true -> deltas_strict tb = true ->
  find_trak_end tb ts et ets = Ok r ->
  exists tet, (if negb (ts =? u32 ets) then div_go (u64 (et * ts)) ets else Ok et) = Ok tet /\
              tet < sumN (durs tb) /\ 1 <= k_of tb tet.
Proof.
  intros H Hd Hr. unfold find_trak_end in Hr.
  destruct (if negb (ts =? u32 ets) then div_go (u64 (et * ts)) ets else Ok et) as [tet| | |] eqn:Et; try discriminate.
  cbn [rbind] in Hr.
  destruct (stts_get_sample_nr_at_time (t_stts_count tb) (t_stts_delta tb) tet) as [nr| | |] eqn:En; try discriminate.
  cbn [rbind] in Hr. destruct (sat_inv tb H Hd tet nr En) as [_ [A [B _]]].
  exists tet. split; [reflexivity|]. split; [exact A|].
  destruct (k_of_le tb tet H) as [K1 K2]. subst nr. rewrite sub32_small in Hr by lia.
  destruct (1 + k_of tb tet - 1 =? 0) eqn:E0; [discriminate|]. lia.
Qed.

(* the input: what is assumed of every track *)
Definition trak_wf (file : list N) (t : trak_in) : Prop :=
  static_ok file (mkTS (ti_id t) (ti_tb t) 0 0 1 []) /\ deltas_strict (ti_tb t) = true /\ ti_ts t < 4294967296.

Lemma trak_ends_from_pre file : forall traks seen et ets ts0, Forall (trak_wf file) traks ->
  trak_ends_from seen traks et ets = Ok ts0 -> Forall (trak_pre file et ets) traks.
Proof.
  induction traks as [|t r IH]; intros seen et ets ts0 Hwf H; [constructor|].
  inversion Hwf as [|? ? [Hst [Hd Hts]] Hwf']; subst. cbn [trak_ends_from] in H.
  destruct (existsb (N.eqb (ti_id t)) seen); [discriminate|].
  destruct (find_trak_end (ti_tb t) (ti_ts t) et ets) as [e| | |] eqn:Ee; try discriminate. cbn [rbind] in H.
  destruct (trak_ends_from (ti_id t :: seen) r et ets) as [r'| | |] eqn:Er; try discriminate.
  constructor; [|eapply IH; eauto].
  pose proof Hst as [Hc _]. cbn [ts_tb] in Hc.
  destruct (find_trak_end_inv (ti_tb t) (ti_ts t) et ets e Hc Hd Ee) as [tet [A [B C]]].
  unfold trak_pre. split; [exact Hst|]. split.
  - unfold deltas_strict in Hd. apply andb_prop in Hd. tauto.
  - exists tet. unfold track_tet. split; [exact A|]. split; assumption.
Qed.

Lemma trak_ends_pre file : forall traks et ets ts0, Forall (trak_wf file) traks -> trak_ends traks et ets = Ok ts0 ->
  Forall (trak_pre file et ets) traks.
Proof. intros traks. exact (trak_ends_from_pre file traks []). Qed.

(* sizeWithoutMdat: updateChunkOffsets does not resize a box *)
Lemma shift_stco_len d : forall l l', shift_stco d l = Ok l' -> lenN l' = lenN l.
Proof.
  induction l as [|o t IH]; intros l' H; cbn [shift_stco] in H; [injection H as <-; reflexivity|].
  destruct (4294967296 <=? u64 (o + d)); [discriminate|].
  destruct (shift_stco d t) as [t'| | |] eqn:E; try discriminate. cbn [rbind] in H. injection H as <-.
  rewrite !lenN_cons, (IH t' eq_refl). reflexivity.
Qed.

Lemma shift_track_size d tb tb' : shift_track d tb = Ok tb' -> stbl_var_size tb' = stbl_var_size tb.
Proof.
  unfold shift_track. intros H. destruct (t_stco tb) as [l|] eqn:Es.
  - destruct (shift_stco d l) as [l'| | |] eqn:E; try discriminate. cbn [rbind] in H. injection H as <-.
    unfold stbl_var_size, set_offsets. cbn [t_stts_count t_ctts t_stsc t_stsz t_stco t_co64 t_stss t_sdtp]. rewrite Es.
    cbn [opt_size]. unfold stco_box_size. rewrite (shift_stco_len d l l' E). reflexivity.
  - destruct (t_co64 tb) as [l|] eqn:Ec; [|discriminate]. injection H as <-.
    unfold stbl_var_size, set_offsets. cbn [t_stts_count t_ctts t_stsc t_stsz t_stco t_co64 t_stss t_sdtp]. rewrite Es, Ec.
    cbn [opt_size]. unfold co64_box_size, shift_co64. rewrite lenN_map. reflexivity.
Qed.

Lemma shift_tracks_size d : forall tbs tbs', shift_tracks d tbs = Ok tbs' ->
  map stbl_var_size tbs' = map stbl_var_size tbs.
Proof.
  induction tbs as [|tb t IH]; intros tbs' H; cbn [shift_tracks] in H; [injection H as <-; reflexivity|].
  destruct (shift_track d tb) as [tb'| | |] eqn:E; try discriminate. cbn [rbind] in H.
  destruct (shift_tracks d t) as [t'| | |] eqn:E2; try discriminate. cbn [rbind] in H. injection H as <-.
  cbn [map]. rewrite (shift_track_size d tb tb' E), (IH t' eq_refl). reflexivity.
Qed.

(* cropToTime succeeded: its stages *)
Lemma crop_to_time_sz_inv traks et ets rest shifted ranges ks swm :
  crop_to_time_sz traks et ets rest = Ok (shifted, ranges, ks, swm) ->
  exists ts0 ts' first cropped, trak_ends traks et ets = Ok ts0 /\
    fill_loop (fill_fuel ts0) ts0 [] 0 0 = Ok (ts', ranges, first) /\ crop_all ts' = Ok cropped /\
    swm = size_without_mdat rest cropped /\ update_chunk_offsets swm first cropped = Ok shifted /\
    ks = map ts_last_sample ts'.
Proof.
  unfold crop_to_time_sz. intros H.
  destruct (trak_ends traks et ets) as [ts0| | |] eqn:E1; try discriminate. cbn [rbind] in H.
  destruct (fill_loop (fill_fuel ts0) ts0 [] 0 0) as [[[ts' rg] first]| | |] eqn:E2; try discriminate. cbn [rbind] in H.
  destruct (crop_all ts') as [cropped| | |] eqn:E3; try discriminate. cbn [rbind] in H.
  destruct (update_chunk_offsets (size_without_mdat rest cropped) first cropped) as [sh| | |] eqn:E5; try discriminate.
  cbn [rbind] in H. injection H as <- <- <- <-. exists ts0, ts', first, cropped. repeat split; assumption || reflexivity.
Qed.

(* crop_to_time_sz is crop_to_time at the size it computes, and that size is the one of the tables it returns *)
Lemma crop_to_time_sz_ok traks et ets rest shifted ranges ks swm :
  crop_to_time_sz traks et ets rest = Ok (shifted, ranges, ks, swm) ->
  crop_to_time traks et ets swm = Ok (shifted, ranges, ks) /\ swm = size_without_mdat rest shifted.
Proof.
  intros H. destruct (crop_to_time_sz_inv _ _ _ _ _ _ _ _ H) as [ts0 [ts' [first [cropped [E1 [E2 [E3 [E4 [E5 ->]]]]]]]]].
  unfold crop_to_time. rewrite E1. cbn [rbind]. rewrite E2. cbn [rbind]. rewrite E3. cbn [rbind]. rewrite E5. cbn [rbind].
  split; [reflexivity|]. rewrite E4 at 1. unfold size_without_mdat. unfold update_chunk_offsets, update_chunk_offsets_h in E5.
  rewrite (shift_tracks_size _ cropped shifted E5). reflexivity.
Qed.

Lemma crop_mp4_file_inv hs ms rest et ets x : crop_mp4_file hs ms rest = Ok (et, ets, x) ->
  exists ref, find_sync_trak hs = Some ref /\ find_end_time (ti_tb ref) (ti_ts ref) ms = Ok et /\ ets = ti_ts ref /\
    crop_to_time_sz (map th_trak hs) et ets rest = Ok x.
Proof.
  unfold crop_mp4_file. intros H. destruct (find_sync_trak hs) as [ref|]; [|discriminate].
  destruct (find_end_time (ti_tb ref) (ti_ts ref) ms) as [et0| | |] eqn:E1; try discriminate. cbn [rbind] in H.
  destruct (crop_to_time_sz (map th_trak hs) et0 (ti_ts ref) rest) as [r| | |] eqn:E2; try discriminate.
  cbn [rbind] in H. injection H as <- <- <-. exists ref. repeat split; assumption || reflexivity.
Qed.

Lemma find_some_in {A} (f : A -> bool) l x : find f l = Some x -> In x l /\ f x = true.
Proof. apply find_some. Qed.

(* the track chosen is the FIRST track with handler "vide" if there is one, else the FIRST with handler "soun" *)
Definition ref_choice (hs : list trak_h) (ref : trak_in) : Prop :=
  exists before h after, hs = before ++ h :: after /\ th_trak h = ref /\
    ((th_handler h = 0 /\ Forall (fun x => th_handler x <> 0) before) \/
     (th_handler h = 1 /\ Forall (fun x => th_handler x <> 0) hs /\ Forall (fun x => th_handler x <> 1) before)).

Lemma find_split {A} (f : A -> bool) : forall l x, find f l = Some x ->
  exists before after, l = before ++ x :: after /\ f x = true /\ Forall (fun y => f y = false) before.
Proof.
  induction l as [|a t IH]; intros x H; [discriminate|]. cbn [find] in H. destruct (f a) eqn:E.
  - injection H as <-. exists [], t. split; [reflexivity|]. split; [exact E|constructor].
  - destruct (IH x H) as [b [af [-> [Hx Hb]]]]. exists (a :: b), af. split; [reflexivity|]. split; [exact Hx|].
    constructor; assumption.
Qed.

Lemma find_none_all {A} (f : A -> bool) : forall l, find f l = None -> Forall (fun y => f y = false) l.
Proof.
  induction l as [|a t IH]; intros H; [constructor|]. cbn [find] in H. destruct (f a) eqn:E; [discriminate|].
  constructor; [exact E|apply IH, H].
Qed.

Lemma find_sync_trak_choice hs ref : find_sync_trak hs = Some ref -> ref_choice hs ref /\ In ref (map th_trak hs).
Proof.
  unfold find_sync_trak. intros H.
  assert (Hneq : forall v l, Forall (fun y : trak_h => (th_handler y =? v) = false) l -> Forall (fun x => th_handler x <> v) l).
  { intros v l. apply Forall_impl. intros a Ha. lia. }
  destruct (find (fun t => th_handler t =? 0) hs) as [h|] eqn:E0.
  - injection H as <-. destruct (find_split _ hs h E0) as [b [a [-> [Hh Hb]]]].
    split; [|apply in_map; apply in_or_app; right; left; reflexivity].
    exists b, h, a. split; [reflexivity|]. split; [reflexivity|]. left. split; [lia|apply Hneq, Hb].
  - destruct (find (fun t => th_handler t =? 1) hs) as [h|] eqn:E1; [|discriminate]. injection H as <-.
    pose proof (find_none_all _ hs E0) as Hn0.
    destruct (find_split _ hs h E1) as [b [a [Eh [Hh Hb]]]].
    split; [|rewrite Eh; apply in_map; apply in_or_app; right; left; reflexivity].
    exists b, h, a. split; [exact Eh|]. split; [reflexivity|]. right. split; [lia|]. split; [apply Hneq, Hn0|apply Hneq, Hb].
Qed.

(* findEndTime returning a time: which time *)
Definition sync_sample (tb : tables) (j : N) : bool :=
  match t_stss tb with Some l => S_is_sync l j | None => true end.

(* T is the start of the first sync sample that starts at or after r (both in the track's own units); that sample is not
   sample 1 (findEndTime refuses to crop to nothing) *)
Definition first_sync_from (tb : tables) (r T : N) : Prop :=
  exists j, 2 <= j <= nsamples tb /\ S_decode_time tb j = Some T /\ r <= T /\ sync_sample tb j = true /\
    forall j' s', 1 <= j' < j -> S_decode_time tb j' = Some s' -> r <= s' -> sync_sample tb j' = false.

Lemma starts_ge ds : forall acc j s, nthN (starts ds acc) j = Some s -> acc <= s.
Proof.
  induction ds as [|d t IH]; intros acc j s H; cbn [starts nthN] in H; [discriminate|].
  destruct (j =? 0); [injection H as <-; lia|]. apply IH in H. lia.
Qed.

(* start times never decrease: the samples starting before r are the first (number of starts < r) ones *)
Lemma starts_lt_iff r ds : forall acc j s, nthN (starts ds acc) j = Some s ->
  (s < r <-> j < lenN (filter (fun x => x <? r) (starts ds acc))).
Proof.
  induction ds as [|d t IH]; intros acc j s H; [discriminate|].
  cbn [starts nthN filter] in *. destruct (acc <? r) eqn:E.
  - rewrite lenN_cons. destruct (j =? 0) eqn:Ej.
    + injection H as <-. lia.
    + specialize (IH _ _ _ H). lia.
  - pose proof (cnt_lt_starts_ge r t (acc + d) ltac:(lia)) as Z. unfold cnt_lt in Z. rewrite Z.
    destruct (j =? 0) eqn:Ej; [injection H as <-; lia|]. apply starts_ge in H. lia.
Qed.

Lemma starts_last_total l : forall acc t d, l <> [] -> nthN (starts l acc) (lenN l - 1) = Some t ->
  nthN l (lenN l - 1) = Some d -> t + d = acc + sumN l.
Proof.
  induction l as [|x r IH]; intros acc t d Hne Ht Hd; [congruence|].
  destruct r as [|y r'].
  - cbn in Ht, Hd. injection Ht as <-. injection Hd as <-. cbn [sumN]. lia.
  - rewrite lenN_cons in Ht, Hd. cbn [starts] in Ht. cbn [sumN].
    replace (1 + lenN (y :: r') - 1) with (lenN (y :: r') - 1 + 1) in Ht, Hd by (rewrite lenN_cons; lia).
    rewrite nthN_S in Ht, Hd.
    pose proof (IH (acc + x) t d ltac:(discriminate) Ht Hd) as Q. cbn [sumN] in Q. lia.
Qed.

Lemma decode_time_lt_iff tb r j s : S_decode_time tb j = Some s -> (s < r <-> j <= k_of tb r).
Proof.
  unfold S_decode_time, k_of. destruct (j =? 0) eqn:E; [discriminate|]. intros H.
  pose proof (starts_lt_iff r (durs tb) 0 (j - 1) s H). lia.
Qed.

Lemma find_end_time_inv tb ts ms et : consistent tb = true -> deltas_strict tb = true ->
  find_end_time tb ts ms = Ok et ->
  u64 (ms * ts) / 1000 < sumN (durs tb) /\
  (first_sync_from tb (u64 (ms * ts) / 1000) et \/ (t_stss tb = None /\ et = sumN (durs tb))).
Proof.
  intros H Hd Hr. set (r := u64 (ms * ts) / 1000) in *.
  pose proof Hd as Hd'. unfold deltas_strict in Hd'. apply andb_prop in Hd'. destruct Hd' as [Hp _].
  destruct (stts_get_sample_nr_at_time (t_stts_count tb) (t_stts_delta tb) r) as [lastNr| | |] eqn:En;
    try (unfold find_end_time in Hr; fold r in Hr; rewrite En in Hr; discriminate).
  destruct (sat_inv tb H Hd r lastNr En) as [HN [Hlt [Hk Hsat]]]. split; [exact Hlt|].
  destruct (k_of_le tb r H) as [K1 K2].
  destruct (stts_facts tb H) as [_ [_ [_ [_ LD]]]].
  destruct (t_stss tb) as [l|] eqn:Hl.
  - destruct (end_time_stss tb l H Hp Hl ts ms lastNr Hlt Hsat) as [[j [t [A [B [C [D [E F]]]]]]]|[[_ F]|[_ [_ F]]]];
      try (rewrite F in Hr; discriminate).
    rewrite F in Hr. injection Hr as <-. left. exists j. split; [exact B|]. split; [exact E|].
    pose proof (decode_time_lt_iff tb r j t E) as I.
    split; [lia|]. unfold sync_sample. rewrite Hl. split; [exact C|].
    intros j' s' Hj' Hs' Hrs. apply D. pose proof (decode_time_lt_iff tb r j' s' Hs'). lia.
  - assert (H2 : 2 <= lastNr).
    { unfold find_end_time in Hr. fold r in Hr. rewrite En in Hr. cbn [rbind] in Hr. rewrite Hl in Hr. cbn [rbind] in Hr.
      rewrite sub32_small in Hr by lia. destruct (lastNr - 1 =? 0) eqn:E0; [discriminate|]. lia. }
    destruct (end_time_nostss tb H Hp Hl ts ms lastNr Hlt Hsat H2) as [t [d [A [B [C F]]]]].
    rewrite F in Hr. injection Hr as <-.
    destruct (N.le_gt_cases lastNr (nsamples tb)) as [Le|Gt].
    + left. exists lastNr. split; [lia|]. split; [apply C, Le|].
      pose proof (decode_time_lt_iff tb r lastNr (t + d) (C Le)) as I. split; [lia|].
      unfold sync_sample. rewrite Hl. split; [reflexivity|].
      intros j' s' Hj' Hs' Hrs. pose proof (decode_time_lt_iff tb r j' s' Hs'). lia.
    + right. split; [reflexivity|]. assert (EN : lastNr - 1 = nsamples tb) by lia.
      unfold S_decode_time, S_dur in A, B. destruct (lastNr - 1 =? 0) eqn:E0; [discriminate|].
      rewrite EN, <- LD in A, B.
      assert (Hne : durs tb <> []) by (intros Z; rewrite Z, lenN_nil in LD; lia).
      pose proof (starts_last_total (durs tb) 0 t d Hne A B). lia.
Qed.

(* what holds of one track t of the input and its tables tb2 in the output: with tet = the end time rescaled to the track's
   timescale exactly as findTrakEnds does it (integer division: known finding C10-F7), k = the number of samples of t that
   start before tet, C = the chunk of sample k: track_out (C10CropProofs): tb2 is consistent, holds k samples in C chunks,
   its per-sample lists are the k-prefixes of the input's, every chunk lies inside the new mdat payload, every kept sample
   read through tb2 yields the input's bytes *)
Definition out_track (file outf : list N) (S payload_len et ets : N) (t : trak_in) (tb2 : tables) : Prop :=
  exists tet C, track_tet t et ets = Ok tet /\ tet < sumN (durs (ti_tb t)) /\ 1 <= k_of (ti_tb t) tet <= nsamples (ti_tb t) /\
    S_chunk_of (ti_tb t) (k_of (ti_tb t) tet) = Some C /\
    track_out file outf S mdat_out_hdr payload_len (ti_id t, ti_tb t, k_of (ti_tb t) tet, C) tb2.

Lemma Forall2_and_r {A B} (R : A -> B -> Prop) (P : B -> Prop) : forall la lb,
  Forall2 R la lb -> Forall P lb -> Forall2 (fun a b => R a b /\ P b) la lb.
Proof.
  intros la lb H. induction H as [|a b la lb Hab H IH]; intros HP; [constructor|].
  inversion HP; subst. constructor; [split; assumption|apply IH; assumption].
Qed.

Lemma crop_mp4_file_correct file hs ms rest pre hdr et ets shifted ranges ks swm :
  Forall (trak_wf file) (map th_trak hs) ->
  4611686018427387904 + 2 * total_bytes (map th_trak hs) < 18446744073709551616 ->
  crop_mp4_file hs ms rest = Ok (et, ets, (shifted, ranges, ks, swm)) ->
  lenN pre = rest + sumN (map stbl_var_size shifted) -> lenN hdr = mdat_out_hdr ->
  lenN pre + mdat_out_hdr + 2 * total_bytes (map th_trak hs) < 18446744073709551616 ->
  exists ref, ref_choice hs ref /\ ets = ti_ts ref /\ swm = lenN pre /\
    first_sync_from (ti_tb ref) (u64 (ms * ti_ts ref) / 1000) et /\
    Forall (range_in file) ranges /\ lenN (out_bytes file ranges) <= total_bytes (map th_trak hs) /\
    Forall2 (out_track file (pre ++ hdr ++ out_bytes file ranges) (lenN pre) (lenN (out_bytes file ranges)) et ets)
            (map th_trak hs) shifted.
Proof.
  intros Hwf HB Hrun Hpre Hhdr HB2.
  destruct (crop_mp4_file_inv _ _ _ _ _ _ Hrun) as [ref [Eref [Eet [-> Ecrop]]]].
  destruct (find_sync_trak_choice hs ref Eref) as [Hch Hin].
  destruct (crop_to_time_sz_ok _ _ _ _ _ _ _ _ Ecrop) as [Hct Hswm].
  assert (Eswm : swm = lenN pre).
  { rewrite Hswm. unfold size_without_mdat. rewrite <- Hpre. apply u64_small. lia. }
  set (traks := map th_trak hs) in *.
  assert (Hpre' : Forall (trak_pre file et (ti_ts ref)) traks).
  { destruct (crop_to_time_sz_inv _ _ _ _ _ _ _ _ Ecrop) as [ts0 [_ [_ [_ [Ends _]]]]].
    exact (trak_ends_pre file traks et (ti_ts ref) ts0 Hwf Ends). }
  exists ref. split; [exact Hch|]. split; [reflexivity|]. split; [exact Eswm|].
  (* the reference track is one of the tracks: its own end time lies inside it *)
  assert (Hrefwf : trak_wf file ref) by (rewrite Forall_forall in Hwf; apply Hwf, Hin).
  destruct Hrefwf as [Hst [Hd Hts]]. pose proof Hst as [Hc _]. cbn [ts_tb] in Hc.
  assert (Hetlt : et < sumN (durs (ti_tb ref))).
  { rewrite Forall_forall in Hpre'. destruct (Hpre' ref Hin) as [_ [_ [tet [A [B _]]]]].
    unfold track_tet in A. rewrite (u32_small (ti_ts ref)) in A by lia. rewrite N.eqb_refl in A. cbn [negb] in A.
    injection A as <-. exact B. }
  destruct (find_end_time_inv (ti_tb ref) (ti_ts ref) ms et Hc Hd Eet) as [_ [Hfs|[_ Heq]]]; [|lia].
  split; [exact Hfs|].
  rewrite Eswm in Hct.
  destruct (crop_to_time_full_le file traks et (ti_ts ref) (lenN pre) pre hdr shifted ranges ks Hpre' HB eq_refl Hhdr HB2 Hct)
    as [Hle [Hrin [ts0 [Hstate [Hcut [_ Hout]]]]]].
  split; [exact Hrin|]. split; [exact Hle|].
  pose proof (Forall2_and_r _ _ _ _ Hstate Hcut) as Hsc.
  apply (proj2 (Forall2_map_l static _ ts0 shifted)) in Hout.
  refine (Forall2_compose _ _ _ _ _ traks ts0 shifted Hpre' Hsc Hout).
  intros t s tb2 Hp [[Hid [Htb [tet [Htet Hk]]]] [Hk1 Hchk]] Ho. cbv beta in Ho.
  destruct Hp as [_ [_ [tet' [Htet' [Hlt' _]]]]]. rewrite Htet in Htet'. injection Htet' as <-.
  unfold out_track. exists tet, (ts_last_chunk s). split; [exact Htet|]. split; [exact Hlt'|].
  rewrite <- Hk, <- Htb. split; [exact Hk1|]. split; [exact Hchk|].
  unfold static in Ho. rewrite Hid, Htb in Ho. rewrite Htb. exact Ho.
Qed.

(* the two roundings (known findings C10-F6 and C10-F7), stated as exact guards *)
(* the property's own definition: the first sync sample starting at or after ms milliseconds, compared exactly *)
Definition first_sync_exact (tb : tables) (ts ms T : N) : Prop :=
  exists j, 2 <= j <= nsamples tb /\ S_decode_time tb j = Some T /\ ms * ts <= T * 1000 /\ sync_sample tb j = true /\
    forall j' s', 1 <= j' < j -> S_decode_time tb j' = Some s' -> ms * ts <= s' * 1000 -> sync_sample tb j' = false.

(* when ms milliseconds are a whole number of track units the floor in findEndTime loses nothing *)
Lemma first_sync_exact_of tb ts ms T : ms * ts < 18446744073709551616 -> (ms * ts) mod 1000 = 0 ->
  first_sync_from tb (u64 (ms * ts) / 1000) T -> first_sync_exact tb ts ms T.
Proof.
  intros Hb Hm [j [A [B [C [D E]]]]]. rewrite u64_small in * by exact Hb.
  assert (Hq : ms * ts = 1000 * (ms * ts / 1000)).
  { pose proof (N.div_mod (ms * ts) 1000 ltac:(lia)). lia. }
  exists j. split; [exact A|]. split; [exact B|]. split; [lia|]. split; [exact D|].
  intros j' s' H1 H2 H3. apply (E j' s' H1 H2). lia.
Qed.

(* without the guard the end time can lie BEFORE the request (C10-F6): 84 ms at timescale 24 are 2.016 units, floored to 2;
   the sample starting at 2 units = 83.3 ms is taken *)
Definition f6_tb : tables :=
  mkTables [4] [1] None (mkStsc [mkEntry 1 4 1] 1 []) (mkStsz 3 4 []) (Some [100]) None None None.
Lemma end_time_before_request :
  exists tb ts ms T, consistent tb = true /\ deltas_strict tb = true /\ find_end_time tb ts ms = Ok T /\
                     T * 1000 < ms * ts.
Proof. exists f6_tb, 24, 84, 2. vm_compute. repeat split. Qed.

(* findTrakEnds: the number of samples starting before the end time, compared exactly across the two timescales *)
Definition k_exact (tb : tables) (ts et ets : N) : N :=
  lenN (filter (fun s => s * ets <? et * ts) (starts (durs tb) 0)).

Lemma filter_ext_N (f g : N -> bool) l : (forall x, f x = g x) -> filter f l = filter g l.
Proof. intros H. induction l as [|a t IH]; [reflexivity|]. cbn [filter]. rewrite H, IH. reflexivity. Qed.

Lemma k_of_exact tb ts et ets : 0 < ets -> et * ts < 18446744073709551616 -> (et * ts) mod ets = 0 ->
  k_of tb (u64 (et * ts) / ets) = k_exact tb ts et ets.
Proof.
  intros H0 Hb Hm. rewrite u64_small by exact Hb. unfold k_of, k_exact. f_equal. apply filter_ext_N. intros s.
  assert (Hq : et * ts = ets * (et * ts / ets)).
  { pose proof (N.div_mod (et * ts) ets ltac:(lia)). lia. }
  set (q := et * ts / ets) in *. rewrite Hq.
  destruct (s <? q) eqn:E1; destruct (s * ets <? ets * q) eqn:E2; try reflexivity; nia.
Qed.

Lemma k_of_same tb ts et : 0 < ts -> k_of tb et = k_exact tb ts et ts.
Proof.
  intros H0. unfold k_of, k_exact. f_equal. apply filter_ext_N. intros s.
  destruct (s <? et) eqn:E1; destruct (s * ts <? et * ts) eqn:E2; try reflexivity; nia.
Qed.

(* without the guard a sample that starts before the end time is dropped (C10-F7): end time 1510/1000 s = 36.24 units at
   timescale 24, floored to 36; the sample starting at 36 starts before the end time but is not kept *)
Definition f7_tb : tables :=
  mkTables [50] [1] None (mkStsc [mkEntry 1 50 1] 1 []) (mkStsz 3 50 []) (Some [100]) None None None.
Lemma k_rounding_refuted :
  exists tb ts et ets k t c, consistent tb = true /\ deltas_strict tb = true /\
    find_trak_end tb ts et ets = Ok (k, t, c) /\ k = 36 /\ k_exact tb ts et ets = 37.
Proof. exists f7_tb, 24, 1510, 1000, 36, 36, (mkChunk 1 1 50). vm_compute. repeat split. Qed.

(* writeMdat succeeded: what it wrote *)
Lemma ranges_size_lt : forall rs acc, acc < 18446744073709551616 -> ranges_size rs acc < 18446744073709551616.
Proof.
  induction rs as [|[s e] t IH]; intros acc H; [exact H|]. cbn [ranges_size]. apply IH. unfold u64. apply N.mod_lt. lia.
Qed.

Lemma write_mdat_lazy_inv file zeof startPos large payloadLen rs mb :
  0 < payloadLen -> lenN file < 9223372036854775808 -> Forall (range_in file) rs ->
  ranges_len rs + 8 < 18446744073709551616 ->
  write_mdat file zeof (C08Model.mdat_lazy startPos large payloadLen) rs = Ok mb ->
  ranges_len rs + 8 < 4294967296 /\
  mb = C08Model.be32 (ranges_len rs + 8) ++ C08Model.name_mdat ++ out_bytes file rs.
Proof.
  intros Hp Hf Hall Hb H.
  rewrite (write_mdat_copied file zeof _ rs Hall Hf Hb (copy_ranges_ok file zeof startPos large payloadLen Hp Hf rs Hall)) in H.
  destruct (ranges_len rs + 8 <? 4294967296) eqn:E; [|discriminate]. injection H as <-. split; [lia|reflexivity].
Qed.

(* writeMdat when the input mdat was decoded into memory (File.Mdat.Data) *)
(* MdatBox.CopyData then slices m.Data and REFUSES a range that does not start inside the payload *)
Definition range_in_mdat (startPos : N) (large : bool) (payloadLen : N) (r : N * N) : Prop :=
  startPos + C08Spec.hdr_len large <= fst r /\ fst r < startPos + C08Spec.hdr_len large + payloadLen /\
  fst r <= snd r + 1 /\ snd r + 1 <= startPos + C08Spec.hdr_len large + payloadLen.

Lemma range_in_mdat_file file startPos large payloadLen r :
  C08Spec.box_in_file file startPos large payloadLen = true -> range_in_mdat startPos large payloadLen r ->
  range_in file r.
Proof.
  unfold C08Spec.box_in_file, range_in_mdat, range_in. intros Hb [A [B [C D]]].
  assert (C08Spec.hdr_len large = 8 \/ C08Spec.hdr_len large = 16) by (destruct large; cbn; lia). lia.
Qed.

Lemma copy_ranges_mem_ok file zeof startPos large payloadLen :
  C08Spec.box_in_file file startPos large payloadLen = true ->
  forall rs, Forall (range_in_mdat startPos large payloadLen) rs ->
  copy_ranges file zeof (C08Model.mdat_mem file startPos large payloadLen) rs = Ok (out_bytes file rs).
Proof.
  intros Hb. induction rs as [|[s e] t IH]; intros Hall; [reflexivity|].
  inversion Hall as [|? ? H0 Ht]; subst. pose proof H0 as [A [B [C D]]]. cbn [fst snd] in *.
  pose proof Hb as Hb'. unfold C08Spec.box_in_file in Hb'.
  cbn [copy_ranges]. rewrite sub64_range by lia.
  rewrite !i64n_small by lia. unfold C08Model.copy_data.
  change (C08Model.lazyDataSize (C08Model.mdat_mem file startPos large payloadLen)) with 0. cbn [N.ltb N.compare].
  rewrite (C08ReadProofs.mem_slice_ok true file startPos large payloadLen (Z.of_N s) (Z.of_N (e + 1 - s)) Hb).
  - cbn [rbind]. rewrite (IH Ht). cbn [rbind]. rewrite !N2Z.id. reflexivity.
  - unfold C08Spec.valid_range. lia.
  - left. reflexivity.
Qed.

Lemma range_in_mdat_all file startPos large payloadLen rs :
  C08Spec.box_in_file file startPos large payloadLen = true -> Forall (range_in_mdat startPos large payloadLen) rs ->
  Forall (range_in file) rs /\ lenN file < 9223372036854775808.
Proof.
  intros Hb Hall. split; [revert Hall; apply Forall_impl; intros r; apply range_in_mdat_file; exact Hb|].
  unfold C08Spec.box_in_file in Hb. lia.
Qed.

Lemma write_mdat_mem_correct file zeof startPos large payloadLen rs :
  C08Spec.box_in_file file startPos large payloadLen = true ->
  Forall (range_in_mdat startPos large payloadLen) rs -> ranges_len rs + 8 < 4294967296 ->
  write_mdat file zeof (C08Model.mdat_mem file startPos large payloadLen) rs
  = Ok (C08Model.be32 (ranges_len rs + 8) ++ C08Model.name_mdat ++ out_bytes file rs) /\
  lenN (out_bytes file rs) = ranges_len rs.
Proof.
  intros Hb Hall Hlt. destruct (range_in_mdat_all _ _ _ _ _ Hb Hall) as [Hall' Hf].
  rewrite (write_mdat_copied file zeof _ rs Hall' Hf ltac:(lia) (copy_ranges_mem_ok file zeof startPos large payloadLen Hb rs Hall)).
  destruct (ranges_len rs + 8 <? 4294967296) eqn:E; [|lia]. split; [reflexivity|exact (out_bytes_len file rs Hall')].
Qed.

(* the two modes differ on an empty range that starts at the end of the payload (a zero-size last chunk): io.CopyN copies
   nothing, the in-memory CopyData returns "invalid range" — a refusal, the property is conditional on success *)
Lemma write_mdat_modes_differ :
  exists file rs, write_mdat file false (C08Model.mdat_lazy 20 false 80) rs
                  = Ok (C08Model.be32 12 ++ C08Model.name_mdat ++ out_bytes file rs) /\
                  write_mdat file false (C08Model.mdat_mem file 20 false 80) rs = Err.
Proof. exists (repeat 7 108), [(104, 107); (108, 107)]. vm_compute. split; reflexivity. Qed.

(* the tool keys its per-track state by track id (map[uint32]*trakOut), the model by position; the two agree when the ids
   are distinct, and findTrakEnds (repaired text, /repo 4fe9823) refuses anything else: success implies distinct ids *)
Definition distinct_ids (hs : list trak_h) : Prop := NoDup (map (fun h => ti_id (th_trak h)) hs).

Lemma crop_mp4_file_distinct hs ms rest r : crop_mp4_file hs ms rest = Ok r -> distinct_ids hs.
Proof.
  destruct r as [[et ets] [[[sh rg] ks] swm]]. intros H.
  destruct (crop_mp4_file_inv _ _ _ _ _ _ H) as [ref [_ [_ [_ Ec]]]].
  destruct (crop_to_time_sz_inv _ _ _ _ _ _ _ _ Ec) as [ts0 [_ [_ [_ [Ends _]]]]].
  pose proof (trak_ends_distinct _ _ _ _ Ends) as Hn. unfold distinct_ids. rewrite map_map in Hn. exact Hn.
Qed.

(* what is needed of writeMdat on the input mdat m: when it succeeds on ranges inside the file, it wrote a 32-bit header and
   exactly the bytes of the ranges *)
Definition mdat_writes (file : list N) (zeof : bool) (m : C08Model.mdat) (rs : list (N * N)) : Prop :=
  forall mb, write_mdat file zeof m rs = Ok mb ->
    ranges_len rs + 8 < 4294967296 /\ mb = C08Model.be32 (ranges_len rs + 8) ++ C08Model.name_mdat ++ out_bytes file rs.

(* the output file: the reference track and the end time as the tool chose them, distinct track ids, the re-encoded boxes
   followed by a compact mdat header and the byte ranges, every track as out_track says *)
Definition cropped_file (file : list N) (hs : list trak_h) (ms : N) (pre : list N) (et ets : N) (shifted : list tables)
    (ranges : list (N * N)) (swm : N) (outf : list N) : Prop :=
  exists ref hdr, distinct_ids hs /\ ref_choice hs ref /\ ets = ti_ts ref /\ swm = lenN pre /\
    first_sync_from (ti_tb ref) (u64 (ms * ti_ts ref) / 1000) et /\
    outf = pre ++ hdr ++ out_bytes file ranges /\
    hdr = C08Model.be32 (lenN (out_bytes file ranges) + 8) ++ C08Model.name_mdat /\
    lenN (out_bytes file ranges) + 8 < 4294967296 /\
    Forall2 (out_track file outf (lenN pre) (lenN (out_bytes file ranges)) et ets) (map th_trak hs) shifted.

Lemma crop_end_to_end_gen file zeof m hs ms rest pre et ets shifted ranges ks swm outf :
  Forall (trak_wf file) (map th_trak hs) ->
  4611686018427387904 + 2 * total_bytes (map th_trak hs) < 18446744073709551616 ->
  crop_mp4_file hs ms rest = Ok (et, ets, (shifted, ranges, ks, swm)) ->
  lenN pre = rest + sumN (map stbl_var_size shifted) ->
  lenN pre + mdat_out_hdr + 2 * total_bytes (map th_trak hs) < 18446744073709551616 ->
  (Forall (range_in file) ranges -> ranges_len ranges + 8 < 18446744073709551616 -> mdat_writes file zeof m ranges) ->
  crop_mp4_output file zeof m pre ranges = Ok outf ->
  cropped_file file hs ms pre et ets shifted ranges swm outf.
Proof.
  intros Hwf HB Hrun Hpre HB2 Hw Hout.
  set (hdr := C08Model.be32 (lenN (out_bytes file ranges) + 8) ++ C08Model.name_mdat).
  assert (Hh : lenN hdr = mdat_out_hdr) by reflexivity.
  destruct (crop_mp4_file_correct file hs ms rest pre hdr et ets shifted ranges ks swm Hwf HB Hrun Hpre Hh HB2)
    as [ref [A [B [C [D [E [Hle F]]]]]]].
  unfold crop_mp4_output in Hout.
  destruct (write_mdat file zeof m ranges) as [mb| | |] eqn:Ew; try discriminate.
  cbn [rbind] in Hout. injection Hout as <-.
  pose proof (out_bytes_len file ranges E) as Hlen.
  destruct (Hw E ltac:(rewrite <- Hlen; lia) mb Ew) as [Hlt Hmb].
  exists ref, hdr. split; [exact (crop_mp4_file_distinct _ _ _ _ Hrun)|].
  split; [exact A|]. split; [exact B|]. split; [exact C|]. split; [exact D|].
  rewrite Hmb, <- Hlen. split; [unfold hdr; rewrite <- app_assoc; reflexivity|]. split; [reflexivity|]. split; [lia|].
  unfold hdr in F. rewrite <- app_assoc in F. exact F.
Qed.

(* the tool's mode: the input mdat decoded lazily *)
Lemma crop_end_to_end file zeof startPos large payloadLen hs ms rest pre et ets shifted ranges ks swm outf :
  Forall (trak_wf file) (map th_trak hs) ->
  4611686018427387904 + 2 * total_bytes (map th_trak hs) < 18446744073709551616 ->
  0 < payloadLen -> lenN file < 9223372036854775808 ->
  crop_mp4_file hs ms rest = Ok (et, ets, (shifted, ranges, ks, swm)) ->
  lenN pre = rest + sumN (map stbl_var_size shifted) ->
  lenN pre + mdat_out_hdr + 2 * total_bytes (map th_trak hs) < 18446744073709551616 ->
  crop_mp4_output file zeof (C08Model.mdat_lazy startPos large payloadLen) pre ranges = Ok outf ->
  cropped_file file hs ms pre et ets shifted ranges swm outf.
Proof.
  intros Hwf HB Hp Hf Hrun Hpre HB2 Hout.
  apply (crop_end_to_end_gen file zeof (C08Model.mdat_lazy startPos large payloadLen) hs ms rest pre et ets shifted ranges ks swm outf Hwf HB Hrun Hpre HB2); [|exact Hout].
  intros Hall Hb mb Ew. exact (write_mdat_lazy_inv file zeof startPos large payloadLen ranges mb Hp Hf Hall Hb Ew).
Qed.

(* the input mdat decoded into memory (File.Mdat.Data): the same, when every byte range starts inside the input's payload *)
Lemma write_mdat_mem_inv file zeof startPos large payloadLen rs :
  C08Spec.box_in_file file startPos large payloadLen = true ->
  Forall (range_in_mdat startPos large payloadLen) rs -> ranges_len rs + 8 < 18446744073709551616 ->
  mdat_writes file zeof (C08Model.mdat_mem file startPos large payloadLen) rs.
Proof.
  intros Hb Hall Hlt mb H. destruct (range_in_mdat_all _ _ _ _ _ Hb Hall) as [Hall' Hf].
  rewrite (write_mdat_copied file zeof _ rs Hall' Hf Hlt (copy_ranges_mem_ok file zeof startPos large payloadLen Hb rs Hall)) in H.
  destruct (ranges_len rs + 8 <? 4294967296) eqn:E; [|discriminate]. injection H as <-. split; [lia|reflexivity].
Qed.

Lemma crop_end_to_end_mem file zeof startPos large payloadLen hs ms rest pre et ets shifted ranges ks swm outf :
  Forall (trak_wf file) (map th_trak hs) ->
  4611686018427387904 + 2 * total_bytes (map th_trak hs) < 18446744073709551616 ->
  C08Spec.box_in_file file startPos large payloadLen = true ->
  crop_mp4_file hs ms rest = Ok (et, ets, (shifted, ranges, ks, swm)) ->
  Forall (range_in_mdat startPos large payloadLen) ranges ->
  lenN pre = rest + sumN (map stbl_var_size shifted) ->
  lenN pre + mdat_out_hdr + 2 * total_bytes (map th_trak hs) < 18446744073709551616 ->
  crop_mp4_output file zeof (C08Model.mdat_mem file startPos large payloadLen) pre ranges = Ok outf ->
  cropped_file file hs ms pre et ets shifted ranges swm outf.
Proof.
  intros Hwf HB Hb Hrun Hin Hpre HB2 Hout.
  apply (crop_end_to_end_gen file zeof (C08Model.mdat_mem file startPos large payloadLen) hs ms rest pre et ets shifted ranges ks swm outf Hwf HB Hrun Hpre HB2); [|exact Hout].
  intros _ Hlt. exact (write_mdat_mem_inv file zeof startPos large payloadLen ranges Hb Hin Hlt).
Qed.

(* in-memory mode from hypotheses on the INPUT only: every byte range starts at a chunk offset *)
(* Stco/Co64.GetOffset as fillTrakOutsAndByteRanges calls it *)
Definition tb_off (tb : tables) (c : N) : res N :=
  match t_stco tb with
  | Some l => get_offset l c
  | None => match t_co64 tb with Some l => get_offset l c | None => Panic end
  end.
Definition off_of (tbs : list tables) (s : N) : Prop := exists tb c, In tb tbs /\ tb_off tb c = Ok s.

Lemma pick_min_src : forall ts i best r, pick_min ts i best = Ok r ->
  r = best \/ off_of (map ts_tb ts) (fst (fst r)).
Proof.
  induction ts as [|t rest IH]; intros i best r H; cbn [pick_min] in H; [injection H as <-; left; reflexivity|].
  assert (Hw : forall r0, r0 = best \/ off_of (map ts_tb rest) (fst (fst r0)) ->
                          r0 = best \/ off_of (map ts_tb (t :: rest)) (fst (fst r0))).
  { intros r0 [A|[tb [c [A B]]]]; [left; exact A|right; exists tb, c; split; [right; exact A|exact B]]. }
  destruct (ts_last_chunk t <? ts_next t); [apply Hw, (IH _ _ _ H)|].
  fold (tb_off (ts_tb t) (ts_next t)) in H.
  destruct (tb_off (ts_tb t) (ts_next t)) as [off| | |] eqn:Eo; try discriminate. cbn [rbind] in H.
  destruct (off <? fst (fst best)).
  - destruct (IH _ _ _ H) as [A|A]; [|apply Hw; right; exact A].
    right. subst r. cbn [fst]. exists (ts_tb t), (ts_next t). split; [left; reflexivity|exact Eo].
  - apply Hw, (IH _ _ _ H).
Qed.

(* what every iteration of the loop preserves, whether or not the tables are consistent: the range added starts at a
   chunk offset of some track *)
Lemma fill_loop_preserves (I : list trak_state -> list (N * N) -> Prop) :
  (forall ts rs j c o e, off_of (map ts_tb ts) o -> I ts rs -> I (upd_ts ts j (advance c)) (add_range rs o e)) ->
  forall fuel ts rs fo cur ts' ranges f', I ts rs -> fill_loop fuel ts rs fo cur = Ok (ts', ranges, f') ->
  exists rs', I ts' rs' /\ ranges = rev rs'.
Proof.
  intros Hstep. induction fuel as [|fuel IH]; intros ts rs fo cur ts' ranges f' HI H; [discriminate|].
  cbn [fill_loop] in H.
  destruct (pick_min ts 0 (4611686018427387904, 0, 0)) as [[[minOff idMin] iMin]| | |] eqn:Ep; try discriminate.
  cbn [rbind] in H. destruct (idMin =? 0) eqn:Eid.
  - injection H as <- <- <-. exists rs. split; [exact HI|reflexivity].
  - assert (HQ : off_of (map ts_tb ts) minOff).
    { destruct (pick_min_src _ _ _ _ Ep) as [A|A]; [injection A as _ A _; lia|exact A]. }
    destruct (fo =? 0); cbv beta iota in H;
      (destruct (idx ts iMin) as [t| | |]; try discriminate; cbn [rbind] in H;
       destruct (stsc_get_chunk _ _) as [ch| | |]; try discriminate; cbn [rbind] in H;
       destruct (stsz_get_total_sample_size _ _ _) as [sz| | |]; try discriminate; cbn [rbind] in H;
       exact (IH _ _ _ _ _ _ _ (Hstep _ _ _ _ _ _ HQ HI) H)).
Qed.

Lemma fill_loop_tbs fuel ts rs fo cur ts' ranges f' :
  fill_loop fuel ts rs fo cur = Ok (ts', ranges, f') -> map ts_tb ts' = map ts_tb ts.
Proof.
  intros H.
  assert (Hstep : forall ts1 (rs1 : list (N * N)) j c o (e : N), off_of (map ts_tb ts1) o ->
            map ts_tb ts1 = map ts_tb ts -> map ts_tb (upd_ts ts1 j (advance c)) = map ts_tb ts).
  { intros ts1 _ j c _ _ _ E. rewrite map_upd_ts; [exact E|reflexivity]. }
  destruct (fill_loop_preserves (fun ts1 _ => map ts_tb ts1 = map ts_tb ts) Hstep _ _ _ _ _ _ _ _ eq_refl H) as [_ [E _]].
  exact E.
Qed.

Lemma add_range_starts (Q : N -> Prop) rs s e : Forall (fun r => Q (fst r)) rs -> Q s ->
  Forall (fun r => Q (fst r)) (add_range rs s e).
Proof.
  intros H Hs. unfold add_range. destruct rs as [|[s0 e0] t]; [constructor; [exact Hs|constructor]|].
  inversion H as [|? ? H0 Ht]; subst. destruct (u64 (e0 + 1) =? s); constructor; try assumption.
Qed.

Lemma crop_range_starts hs ms rest et ets shifted ranges ks swm :
  crop_mp4_file hs ms rest = Ok (et, ets, (shifted, ranges, ks, swm)) ->
  Forall (fun r => off_of (map ti_tb (map th_trak hs)) (fst r)) ranges.
Proof.
  intros H. destruct (crop_mp4_file_inv _ _ _ _ _ _ H) as [ref [_ [_ [_ Ec]]]].
  destruct (crop_to_time_sz_inv _ _ _ _ _ _ _ _ Ec) as [ts0 [ts' [first [_ [Ends [Ef _]]]]]].
  destruct (trak_ends_init _ _ _ _ Ends) as [_ [<- _]].
  set (I := fun ts1 rs1 => map ts_tb ts1 = map ts_tb ts0 /\ Forall (fun r : N * N => off_of (map ts_tb ts0) (fst r)) rs1).
  assert (Hstep : forall ts1 rs1 j c o e, off_of (map ts_tb ts1) o -> I ts1 rs1 ->
            I (upd_ts ts1 j (advance c)) (add_range rs1 o e)).
  { intros ts1 rs1 j c o e Ho [E Hrs]. split; [rewrite map_upd_ts; [exact E|reflexivity]|].
    apply add_range_starts; [exact Hrs|rewrite <- E; exact Ho]. }
  destruct (fill_loop_preserves I Hstep _ _ _ _ _ _ _ _ (conj eq_refl (Forall_nil _)) Ef) as [rs' [[_ Hrs] ->]].
  apply Forall_rev, Hrs.
Qed.

(* static_ok does not depend on the bytes beyond the end of the chunks *)
Lemma trak_wf_mono file file' t : lenN file' <= lenN file -> trak_wf file' t -> trak_wf file t.
Proof.
  intros Hl [[A [B [C [D E]]]] R]. split; [|exact R]. split; [exact A|]. split; [exact B|]. split; [exact C|]. split; [exact D|].
  intros c o cnt H1 H2. specialize (E c o cnt H1 H2). lia.
Qed.

(* every chunk of every track starts inside the input mdat's payload [lo, hi) and ends inside it (the file cut at hi still
   holds every chunk): then so does every byte range *)
Definition chunks_in_payload (file : list N) (lo hi : N) (t : trak_in) : Prop :=
  trak_wf (firstn (N.to_nat hi) file) t /\ forall c o, tb_off (ti_tb t) c = Ok o -> lo <= o < hi.

Lemma lenN_firstn_le {A} (l : list A) n : lenN (firstn (N.to_nat n) l) <= n /\ lenN (firstn (N.to_nat n) l) <= lenN l.
Proof. unfold lenN. rewrite firstn_length. lia. Qed.

Lemma crop_end_to_end_mem_input file zeof startPos large payloadLen hs ms rest pre et ets shifted ranges ks swm outf :
  Forall (chunks_in_payload file (startPos + C08Spec.hdr_len large) (startPos + C08Spec.hdr_len large + payloadLen))
         (map th_trak hs) ->
  4611686018427387904 + 2 * total_bytes (map th_trak hs) < 18446744073709551616 ->
  C08Spec.box_in_file file startPos large payloadLen = true ->
  crop_mp4_file hs ms rest = Ok (et, ets, (shifted, ranges, ks, swm)) ->
  lenN pre = rest + sumN (map stbl_var_size shifted) ->
  lenN pre + mdat_out_hdr + 2 * total_bytes (map th_trak hs) < 18446744073709551616 ->
  crop_mp4_output file zeof (C08Model.mdat_mem file startPos large payloadLen) pre ranges = Ok outf ->
  cropped_file file hs ms pre et ets shifted ranges swm outf.
Proof.
  intros Hin HB Hb Hrun Hpre HB2 Hout.
  set (lo := startPos + C08Spec.hdr_len large) in *. set (hi := lo + payloadLen) in *.
  set (file' := firstn (N.to_nat hi) file).
  destruct (lenN_firstn_le file hi) as [L1 L2]. fold file' in L1, L2.
  assert (Hwf' : Forall (trak_wf file') (map th_trak hs)).
  { revert Hin. apply Forall_impl. intros t [A _]. exact A. }
  assert (Hwf : Forall (trak_wf file) (map th_trak hs)).
  { revert Hwf'. apply Forall_impl. intros t. apply trak_wf_mono. exact L2. }
  (* the byte ranges end inside the payload ... *)
  destruct (crop_mp4_file_correct file' hs ms rest pre (repeat 0 8) et ets shifted ranges ks swm Hwf' HB Hrun Hpre eq_refl HB2)
    as [_ [_ [_ [_ [_ [Hr' _]]]]]].
  (* ... and start inside it *)
  pose proof (crop_range_starts hs ms rest et ets shifted ranges ks swm Hrun) as Hs.
  apply (crop_end_to_end_mem file zeof startPos large payloadLen hs ms rest pre et ets shifted ranges ks swm outf
           Hwf HB Hb Hrun); try assumption.
  rewrite Forall_forall in *. intros r Hr. specialize (Hr' r Hr). specialize (Hs r Hr).
  destruct Hs as [tb [c [Htb Ho]]]. apply in_map_iff in Htb. destruct Htb as [t [Et Ht]]. subst tb.
  destruct (Hin t Ht) as [_ Hc]. specialize (Hc c (fst r) Ho).
  unfold range_in in Hr'. unfold range_in_mdat. fold lo. fold hi. lia.
Qed.

Lemma crop_mp4_all_ok hs mvts tks ms rest et ets x nd tks' :
  crop_mp4_all hs mvts tks ms rest = Ok (et, ets, x, (nd, tks')) ->
  crop_mp4_file hs ms rest = Ok (et, ets, x) /\
  Forall2 (fun old new => tk_dur new = nd /\ nd <= tk_dur old /\ md_dur new = md_dur old /\ elst_le (tk_elst new) (tk_elst old))
          tks tks' /\
  (forall mv, (exists t, In t tks /\ tk_dur t <= mv) -> nd <= mv).
Proof.
  unfold crop_mp4_all. intros H. destruct (crop_mp4_file hs ms rest) as [[[et0 ets0] x0]| | |]; try discriminate.
  cbn [rbind] in H. destruct (write_upto_mdat_durs et0 ets0 mvts tks) as [[nd0 tk0]| | |] eqn:Ed; try discriminate.
  cbn [rbind] in H. injection H as <- <- <- <- <-. split; [reflexivity|].
  exact (header_durations et0 ets0 mvts tks nd0 tk0 Ed).
Qed.
