(* C10EndProofs.v — findTrakEnds: the number of kept samples is the number of samples starting before the
   (rescaled) end time; the end of the track and the last chunk are those of sample k. *)
From V.lib Require Import Base.
From V.c09 Require Import C09Model C09Spec C09BaseProofs C09SttsProofs C09CttsProofs C09StscProofs C09TimeProofs.
From V.c10 Require Import C10Model C10RlProofs.

Lemma lenN_filter_le {A} (f : A -> bool) l : lenN (filter f l) <= lenN l.
Proof.
  induction l as [|x t IH]; [cbn; lia|]. cbn [filter]. destruct (f x); rewrite ?lenN_cons; lia.
Qed.

Lemma start_plus_dur_le l : forall acc j t d, nthN (starts l acc) j = Some t -> nthN l j = Some d ->
  t + d <= acc + sumN l.
Proof.
  induction l as [|x r IH]; intros acc j t d Ht Hd; [discriminate|].
  cbn [starts nthN sumN] in *. destruct (j =? 0).
  - injection Ht as <-. injection Hd as <-. lia.
  - specialize (IH (acc + x) (j - 1) t d Ht Hd). lia.
Qed.

Lemma starts_succ l : forall acc i t d, nthN (starts l acc) i = Some t -> nthN l i = Some d -> i + 1 < lenN l ->
  nthN (starts l acc) (i + 1) = Some (t + d).
Proof.
  induction l as [|x r IH]; intros acc i t d Ht Hd Hl; [discriminate|].
  rewrite lenN_cons in Hl. cbn [starts] in *. rewrite nthN_S. cbn [nthN] in Ht, Hd.
  destruct (i =? 0) eqn:E.
  - injection Ht as <-. injection Hd as <-. replace i with 0 by lia.
    destruct r as [|y r']; [rewrite lenN_nil in Hl; lia|]. reflexivity.
  - replace i with (i - 1 + 1) at 1 by lia. apply IH; [exact Ht|exact Hd|lia].
Qed.

(* sample j ends at t + d, inside the track, where sample j + 1 (if there is one) starts *)
Lemma sample_end tb j t d : lenN (durs tb) = nsamples tb -> S_decode_time tb j = Some t -> S_dur tb j = Some d ->
  t + d <= sumN (durs tb) /\ (j < nsamples tb -> S_decode_time tb (j + 1) = Some (t + d)).
Proof.
  intros LD Ht Hd. unfold S_decode_time, S_dur in *. destruct (j =? 0) eqn:E; [discriminate|]. split.
  - pose proof (start_plus_dur_le (durs tb) 0 (j - 1) t d Ht Hd). lia.
  - intros Hj. destruct (j + 1 =? 0) eqn:E1; [lia|]. replace (j + 1 - 1) with (j - 1 + 1) by lia.
    apply starts_succ; [exact Ht|exact Hd|lia].
Qed.

(* GetSampleNrAtTime's answer, as the specification gives it, is a sample number or one more *)
Lemma sample_at_time_le tb r nr : lenN (durs tb) = nsamples tb -> r < sumN (durs tb) ->
  S_sample_at_time tb r = Some nr -> 1 <= nr <= nsamples tb + 1.
Proof.
  intros LD Hlt H. unfold S_sample_at_time in H. destruct (r <? sumN (durs tb)) eqn:E; [|lia].
  assert (Hn : nr = 1 + lenN (filter (fun s => s <? r) (starts (durs tb) 0))) by congruence.
  pose proof (lenN_filter_le (fun s => s <? r) (starts (durs tb) 0)) as Hf. rewrite lenN_starts in Hf. lia.
Qed.

Lemma trak_end_correct tb : consistent tb = true ->
  deltas_positive (t_stts_count tb) (t_stts_delta tb) = true -> forall ts et ets tet,
  (if negb (ts =? u32 ets) then div_go (u64 (et * ts)) ets else Ok et) = Ok tet ->
  tet < sumN (durs tb) ->
  1 <= lenN (filter (fun s => s <? tet) (starts (durs tb) 0)) ->
  exists k t d c cnt, k = lenN (filter (fun s => s <? tet) (starts (durs tb) 0)) /\ k <= nsamples tb /\
    S_decode_time tb k = Some t /\ S_dur tb k = Some d /\ S_chunk_of tb k = Some c /\ S_chunk_count tb c = Some cnt /\
    find_trak_end tb ts et ets = Ok (k, t + d, mkChunk c (S_first_in_chunk tb c) cnt).
Proof.
  intros H Hp ts et ets tet Htet Hlt Hk1.
  destruct (stts_facts tb H) as [L [S [B [T LD]]]].
  destruct (stsc_facts tb H) as [_ [_ [_ [_ [_ [_ [HN [HC _]]]]]]]].
  set (k := lenN (filter (fun s => s <? tet) (starts (durs tb) 0))) in *.
  assert (HkN : k <= nsamples tb).
  { unfold k. pose proof (lenN_filter_le (fun s => s <? tet) (starts (durs tb) 0)). rewrite lenN_starts in H0. lia. }
  pose proof (sample_at_time_correct tb H Hp ltac:(lia) tet) as Hsat.
  unfold S_sample_at_time in Hsat. destruct (tet <? sumN (durs tb)) eqn:E; [|lia]. fold k in Hsat.
  destruct (decode_time_correct tb H k ltac:(lia)) as [t [d [Ht [Hd Hdt]]]].
  destruct (chunk_of_sample_correct tb H k ltac:(lia)) as [c [Hc [HcR [_ [_ Hcn]]]]].
  destruct (get_chunk_correct tb H c HcR) as [cnt [Hcnt [_ [_ Hgc]]]].
  exists k, t, d, c, cnt. split; [reflexivity|]. split; [exact HkN|]. split; [exact Ht|]. split; [exact Hd|].
  split; [exact Hc|]. split; [exact Hcnt|].
  unfold find_trak_end. rewrite Htet. cbn [rbind]. rewrite Hsat. cbn [rbind].
  rewrite sub32_small by lia. replace (1 + k - 1) with k by lia.
  destruct (k =? 0) eqn:Ek0; [lia|]. rewrite Hdt. cbn [rbind fst snd]. rewrite Hcn. cbn [rbind fst].
  rewrite (u32_small c) by lia. rewrite Hgc. cbn [rbind].
  destruct (sample_end tb k t d LD Ht Hd) as [Hend _]. rewrite u64_small by lia. reflexivity.
Qed.

Lemma sync_scan_ok l : sorted_le l = true -> forall n nr, 1 <= nr -> nr + N.of_nat n < 4294967296 ->
  (exists j, nr <= j < nr + N.of_nat n /\ S_is_sync l j = true /\
             (forall j', nr <= j' < j -> S_is_sync l j' = false) /\ sync_scan l n nr = Ok (Some (j - 1))) \/
  ((forall j', nr <= j' < nr + N.of_nat n -> S_is_sync l j' = false) /\ sync_scan l n nr = Ok None).
Proof.
  intros Hs. induction n as [|n IH]; intros nr H1 Hb.
  - right. split; [intros; lia|reflexivity].
  - cbn [sync_scan]. rewrite (is_sync_correct l nr Hs). cbn [rbind].
    destruct (S_is_sync l nr) eqn:E.
    + left. exists nr. split; [lia|]. split; [exact E|]. split; [intros; lia|].
      rewrite sub32_small by lia. reflexivity.
    + rewrite u32_small by lia. destruct (IH (nr + 1) ltac:(lia) ltac:(lia)) as [[j [A [B [C D]]]]|[A B]].
      * left. exists j. split; [lia|]. split; [exact B|]. split; [|exact D].
        intros j' Hj'. destruct (N.eq_dec j' nr) as [->|]; [exact E|]. apply C. lia.
      * right. split; [|exact B]. intros j' Hj'. destruct (N.eq_dec j' nr) as [->|]; [exact E|]. apply A. lia.
Qed.

(* with stss: the end time is the start of the first sync sample at or after the request
   (lastNr = first sample starting at or after the request, C09_sample_at_time) *)
Lemma end_time_stss tb l : consistent tb = true ->
  deltas_positive (t_stts_count tb) (t_stts_delta tb) = true -> t_stss tb = Some l ->
  forall ts ms lastNr, u64 (ms * ts) / 1000 < sumN (durs tb) ->
  S_sample_at_time tb (u64 (ms * ts) / 1000) = Some lastNr ->
  (exists j t, lastNr <= j /\ 2 <= j <= nsamples tb /\ S_is_sync l j = true /\
               (forall j', lastNr <= j' < j -> S_is_sync l j' = false) /\
               S_decode_time tb j = Some t /\ find_end_time tb ts ms = Ok t) \/
  ((forall j', lastNr <= j' -> S_is_sync l j' = false) /\ find_end_time tb ts ms = Err) \/
  (lastNr = 1 /\ S_is_sync l 1 = true /\ find_end_time tb ts ms = Err).
Proof.
  intros H Hp Hl ts ms lastNr Hlt Hsat.
  destruct (stts_facts tb H) as [L [S [B [T LD]]]].
  destruct (consistent_parts tb H) as [HN1 [_ [_ [_ [_ [_ [Hss _]]]]]]]. unfold is_u32 in HN1.
  unfold stss_ok in Hss. rewrite Hl in Hss. apply andb_prop in Hss. destruct Hss as [Hsort Hrange].
  pose proof (sorted_lt_le _ Hsort) as Hsle.
  assert (HN : 1 <= nsamples tb).
  { destruct (N.eq_dec (nsamples tb) 0) as [E|]; [|lia].
    rewrite <- LD in E. destruct (durs tb) eqn:Ed; [cbn in Hlt; lia|rewrite lenN_cons in E; lia]. }
  pose proof (sample_at_time_correct tb H Hp HN (u64 (ms * ts) / 1000)) as Hm. rewrite Hsat in Hm.
  pose proof (sample_at_time_le tb _ lastNr LD Hlt Hsat) as HlastR.
  unfold find_end_time. rewrite Hm. cbn [rbind]. rewrite Hl.
  destruct (lenN l =? 0) eqn:El.
  - right. left. split; [|reflexivity]. intros j' _. destruct l; [reflexivity|rewrite lenN_cons in El; lia].
  - assert (Hne : l <> []) by (destruct l; [rewrite lenN_nil in El; lia|discriminate]).
    pose proof (nthN_last l 0 Hne) as Hhi. set (hi := last l 0) in *.
    rewrite (idx_m1_Some l (lenN l) hi ltac:(lia) Hhi). cbn [rbind].
    assert (HhiR : 1 <= hi <= nsamples tb).
    { rewrite forallb_forall in Hrange. pose proof (nthN_In _ _ _ Hhi) as Hin. specialize (Hrange hi Hin). lia. }
    assert (Hhis : S_is_sync l hi = true) by (apply (existsb_nthN_true _ l (lenN l - 1) hi Hhi); lia).
    assert (Hbeyond : forall j', hi < j' -> S_is_sync l j' = false).
    { intros j' Hj'. apply existsb_nthN_false. intros i v Hv.
      pose proof (nthN_Some_lt _ _ _ Hv).
      pose proof (sorted_le_nth l Hsle i (lenN l - 1) v hi ltac:(lia) Hv Hhi). lia. }
    destruct (sync_scan_ok l Hsle (N.to_nat (hi + 1 - lastNr)) lastNr ltac:(lia) ltac:(lia)) as [[j [A [Bj [C D]]]]|[A D]];
      rewrite D; cbn [rbind].
    + destruct (j - 1 =? 0) eqn:Ej.
      * (* the first sync sample at/after the request is sample 1: nothing left *)
        right. right. assert (j = 1) by lia. subst j. split; [lia|]. split; [exact Bj|reflexivity].
      * left. destruct (decode_time_correct tb H (j - 1) ltac:(lia)) as [t [d [Ht [Hd Hdt]]]].
        exists j, (t + d). split; [lia|]. split; [lia|]. split; [exact Bj|]. split; [exact C|].
        rewrite Hdt. cbn [rbind fst snd]. destruct (sample_end tb (j - 1) t d LD Ht Hd) as [Hend Hnext].
        split; [replace j with (j - 1 + 1) at 1 by lia; apply Hnext; lia|]. rewrite u64_small by lia. reflexivity.
    + right. left. split; [|reflexivity]. intros j' Hlj.
      destruct (N.le_gt_cases j' hi) as [Le|Gt]; [apply A; lia|apply Hbeyond; exact Gt].
Qed.

(* without stss every sample is a sync sample: the end time is the end of the sample before the first sample
   starting at or after the request, i.e. the start of that sample (repaired text) *)
Lemma end_time_nostss tb : consistent tb = true ->
  deltas_positive (t_stts_count tb) (t_stts_delta tb) = true -> t_stss tb = None ->
  forall ts ms lastNr, u64 (ms * ts) / 1000 < sumN (durs tb) ->
  S_sample_at_time tb (u64 (ms * ts) / 1000) = Some lastNr -> 2 <= lastNr ->
  exists t d, S_decode_time tb (lastNr - 1) = Some t /\ S_dur tb (lastNr - 1) = Some d /\
              (lastNr <= nsamples tb -> S_decode_time tb lastNr = Some (t + d)) /\
              find_end_time tb ts ms = Ok (t + d).
Proof.
  intros H Hp Hl ts ms lastNr Hlt Hsat H2.
  destruct (stts_facts tb H) as [L [S [B [T LD]]]].
  pose proof (sample_at_time_le tb _ lastNr LD Hlt Hsat) as HlastR.
  pose proof (sample_at_time_correct tb H Hp ltac:(lia) (u64 (ms * ts) / 1000)) as Hm. rewrite Hsat in Hm.
  destruct (decode_time_correct tb H (lastNr - 1) ltac:(lia)) as [t [d [Ht [Hd Hdt]]]].
  exists t, d. split; [exact Ht|]. split; [exact Hd|].
  destruct (sample_end tb (lastNr - 1) t d LD Ht Hd) as [Hle Hnext]. split.
  - intros HlN. replace lastNr with (lastNr - 1 + 1) at 1 by lia. apply Hnext. lia.
  - unfold find_end_time. rewrite Hm. cbn [rbind]. rewrite Hl. cbn [rbind].
    destruct (consistent_parts tb H) as [HN1 _]. unfold is_u32 in HN1.
    rewrite sub32_small by lia. destruct (lastNr - 1 =? 0) eqn:E; [lia|].
    rewrite Hdt. cbn [rbind fst snd]. rewrite u64_small by lia. reflexivity.
Qed.
