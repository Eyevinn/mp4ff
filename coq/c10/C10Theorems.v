(* C10Theorems.v — the property theorems of C10 and nothing else.  The general statements are closed by
   `exact <lemma>`, the examples and counterexamples by evaluation; each theorem is followed by Print Assumptions.
   Shape: for ALL tables with `consistent tb = true` (C09Spec) and every k in 1..N the model of
   the crop routine (C10Model.v) returns tables whose expansion is the k-prefix of the input's expansion. *)
From V.lib Require Import Base.
From V.c09 Require Import C09Model C09Spec C09Theorems.
From V.c10 Require Import C10Model C10RlProofs C10CttsProofs C10StscProofs C10ConsProofs C10EndProofs C10LayoutProofs
  C10TermProofs C10OutProofs C10E2EProofs C10C09Proofs C10CropProofs C10FileModel C10FullProofs C10SizeProofs.

(* the hypotheses are satisfiable: C09's 7-sample example table with a cut inside a run, a chunk and a ctts entry *)
Example ex_crop : consistent ex_tb = true /\
  crop_stts (t_stts_count ex_tb) (t_stts_delta ex_tb) 5 = Ok ([3; 1; 1], [10; 20; 5]) /\
  crop_stsc (t_stsc ex_tb) 5 = Ok (mkStsc [mkEntry 1 2 1; mkEntry 3 1 5] 0 [1; 2]).
Proof. vm_compute. repeat split. Qed.

(* cropStts: durations of the result = the first k durations *)
Theorem C10_stts : forall tb, consistent tb = true -> forall k, 1 <= k <= nsamples tb ->
  exists cs' ds', crop_stts (t_stts_count tb) (t_stts_delta tb) k = Ok (cs', ds') /\
    expand_rl cs' ds' = firstnN (durs tb) k /\
    lenN cs' = lenN ds' /\ sumN cs' = k /\ forallb is_u32 cs' = true /\ forallb is_u32 ds' = true.
Proof. exact stts_crop_correct. Qed.
Print Assumptions C10_stts.

(* cropCtts: composition offsets of the result = the first k offsets; the cumulative table stays well formed *)
Theorem C10_ctts : forall tb c, consistent tb = true -> t_ctts tb = Some c -> forall k, 1 <= k <= nsamples tb ->
  exists c', crop_ctts c k = Ok c' /\ ctos_of c' = firstnN (ctos_of c) k /\
             lenN (ct_end c') = lenN (ct_off c') + 1 /\ hd 1 (ct_end c') = 0 /\ sorted_le (ct_end c') = true /\
             last (ct_end c') 0 = k.
Proof. exact ctts_crop_correct. Qed.
Print Assumptions C10_ctts.

(* cropStsz *)
Theorem C10_stsz : forall tb, consistent tb = true -> forall k, 1 <= k <= nsamples tb ->
  exists z', crop_stsz (t_stsz tb) k = Ok z' /\ sizes_of z' = firstnN (sizes tb) k /\
             sz_number z' = k /\ sz_uniform z' = sz_uniform (t_stsz tb) /\
             (if sz_uniform z' =? 0 then sz_number z' =? lenN (sz_sizes z') else lenN (sz_sizes z') =? 0) = true /\
             forallb is_u32 (sz_sizes z') = true.
Proof. exact stsz_crop_correct. Qed.
Print Assumptions C10_stsz.

(* cropSdtp *)
Theorem C10_sdtp : forall (l : list N) k, k <= lenN l -> crop_sdtp l k = firstnN l k.
Proof. exact sdtp_crop_correct. Qed.
Print Assumptions C10_sdtp.

(* cropStss: the kept sync sample numbers are exactly those <= k *)
Theorem C10_stss : forall l k, sorted_le l = true -> crop_stss l k = filter (fun y => y <=? k) l.
Proof. exact stss_crop_correct. Qed.
Print Assumptions C10_stss.

(* cropStsc (repaired text): over C' = chunk_of k chunks, the per-chunk sample counts are those of the input with the
   last chunk truncated at k; the entries stay well formed (strictly increasing first chunks, cached first sample
   numbers follow the recurrence), the description-id slice keeps the length of the entries *)
Theorem C10_stsc : forall tb, consistent tb = true -> forall k, 1 <= k <= nsamples tb ->
  exists b' C', crop_stsc (t_stsc tb) k = Ok b' /\ S_chunk_of tb k = Some C' /\ 1 <= C' <= nchunks tb /\
    chunk_counts (sc_entries b') C' = firstnN (counts_of tb) (C' - 1) ++ [k + 1 - S_first_in_chunk tb C'] /\
    1 <= k + 1 - S_first_in_chunk tb C' /\ S_first_in_chunk tb C' <= k /\
    (exists cnt, nthN (counts_of tb) (C' - 1) = Some cnt /\ k + 1 - S_first_in_chunk tb C' <= cnt) /\
    entries_ok (sc_entries b') C' = true /\
    (exists e0', nthN (sc_entries b') 0 = Some e0' /\ first_chunk e0' = 1 /\ first_sample e0' = 1) /\
    (if sc_single b' =? 0 then lenN (sc_ids b') =? lenN (sc_entries b') else lenN (sc_ids b') =? 0) = true /\
    forallb (fun x => negb (x =? 0)) (sc_ids b') = true /\ sc_single b' = sc_single (t_stsc tb).
Proof. exact stsc_crop_correct. Qed.
Print Assumptions C10_stsc.

(* ... hence every kept sample stays in the chunk it was in, and the chunks hold exactly k samples *)
Theorem C10_stsc_sample_chunks : forall tb, consistent tb = true -> forall k, 1 <= k <= nsamples tb ->
  exists b' C', crop_stsc (t_stsc tb) k = Ok b' /\ S_chunk_of tb k = Some C' /\
    sample_chunks (chunk_counts (sc_entries b') C') 1 = firstnN (sample_chunks (counts_of tb) 1) k /\
    sumN (chunk_counts (sc_entries b') C') = k.
Proof. exact stsc_crop_sample_chunks. Qed.
Print Assumptions C10_stsc_sample_chunks.

(* cropStblChildren on one track: the cropped tables are consistent again (so the output is decodable and every C09
   theorem applies to it) and every per-sample list of the result is the k-prefix of the input's:
   durations, sizes, composition offsets, sync samples, sdtp entries, chunk membership *)
Example ex_new_offsets : new_offsets_ok ex_tb 5 [40; 50; 60] = true.
Proof. vm_compute. reflexivity. Qed.
Theorem C10_cropped_consistent : forall tb, consistent tb = true -> forall k offs, 1 <= k <= nsamples tb ->
  new_offsets_ok tb k offs = true ->
  exists tb', crop_tables tb k offs = Ok tb' /\ consistent tb' = true /\ nsamples tb' = k /\
    durs tb' = firstnN (durs tb) k /\ sizes tb' = firstnN (sizes tb) k /\
    (forall c, t_ctts tb = Some c -> exists c', t_ctts tb' = Some c' /\ ctos_of c' = firstnN (ctos_of c) k) /\
    (forall l, t_stss tb = Some l -> t_stss tb' = Some (filter (fun y => y <=? k) l)) /\
    (forall l, t_sdtp tb = Some l -> t_sdtp tb' = Some (firstnN l k)) /\
    sample_chunks (counts_of tb') 1 = firstnN (sample_chunks (counts_of tb) 1) k /\
    offsets tb' = offs.
Proof. exact crop_tables_consistent. Qed.
Print Assumptions C10_cropped_consistent.

(* findTrakEnds: k = |{ i | decode_time i < track end time }|, the track end is the end of sample k and the last chunk
   is the chunk of sample k (needs the stts deltas positive, as C09_sample_at_time) *)
Theorem C10_k : forall tb, consistent tb = true ->
  deltas_positive (t_stts_count tb) (t_stts_delta tb) = true -> forall ts et ets tet,
  (if negb (ts =? u32 ets) then div_go (u64 (et * ts)) ets else Ok et) = Ok tet ->
  tet < sumN (durs tb) ->
  1 <= lenN (filter (fun s => s <? tet) (starts (durs tb) 0)) ->
  exists k t d c cnt, k = lenN (filter (fun s => s <? tet) (starts (durs tb) 0)) /\ k <= nsamples tb /\
    S_decode_time tb k = Some t /\ S_dur tb k = Some d /\ S_chunk_of tb k = Some c /\ S_chunk_count tb c = Some cnt /\
    find_trak_end tb ts et ets = Ok (k, t + d, mkChunk c (S_first_in_chunk tb c) cnt).
Proof. exact trak_end_correct. Qed.
Print Assumptions C10_k.

(* findEndTime with an stss box: the end time is the start (decode time) of the first sync sample j at or after the
   first sample that starts at or after the request (lastNr, characterised by C09_sample_at_time); an error when there is
   no such sync sample, or when it is sample 1 (nothing would be left) *)
Theorem C10_end_time_spec : forall tb l, consistent tb = true ->
  deltas_positive (t_stts_count tb) (t_stts_delta tb) = true -> t_stss tb = Some l ->
  forall ts ms lastNr, u64 (ms * ts) / 1000 < sumN (durs tb) ->
  S_sample_at_time tb (u64 (ms * ts) / 1000) = Some lastNr ->
  (exists j t, lastNr <= j /\ 2 <= j <= nsamples tb /\ S_is_sync l j = true /\
               (forall j', lastNr <= j' < j -> S_is_sync l j' = false) /\
               S_decode_time tb j = Some t /\ find_end_time tb ts ms = Ok t) \/
  ((forall j', lastNr <= j' -> S_is_sync l j' = false) /\ find_end_time tb ts ms = Err) \/
  (lastNr = 1 /\ S_is_sync l 1 = true /\ find_end_time tb ts ms = Err).
Proof. exact end_time_stss. Qed.
Print Assumptions C10_end_time_spec.

(* findEndTime without stss (repaired text, 16b42be): the end time is the start of the first sample starting at or
   after the request (the end of the track when there is none) *)
Theorem C10_end_time_nostss : forall tb, consistent tb = true ->
  deltas_positive (t_stts_count tb) (t_stts_delta tb) = true -> t_stss tb = None ->
  forall ts ms lastNr, u64 (ms * ts) / 1000 < sumN (durs tb) ->
  S_sample_at_time tb (u64 (ms * ts) / 1000) = Some lastNr -> 2 <= lastNr ->
  exists t d, S_decode_time tb (lastNr - 1) = Some t /\ S_dur tb (lastNr - 1) = Some d /\
              (lastNr <= nsamples tb -> S_decode_time tb lastNr = Some (t + d)) /\
              find_end_time tb ts ms = Ok (t + d).
Proof. exact end_time_nostss. Qed.
Print Assumptions C10_end_time_nostss.

(* the pinned text (f87a9e4) kept the sample found: the end time was the END of the first sample at/after the request,
   and a request inside the last sample indexed past the stts table *)
Definition ns_tb : tables :=
  mkTables [4] [10] None (mkStsc [mkEntry 1 4 1] 1 []) (mkStsz 3 4 []) (Some [100]) None None None.
Theorem C10_end_time_nostss_refuted :
  consistent ns_tb = true /\ S_sample_at_time ns_tb 15 = Some 3 /\ S_decode_time ns_tb 3 = Some 20 /\
  find_end_time_pinned ns_tb 1000 15 = Ok 30 /\ find_end_time ns_tb 1000 15 = Ok 20 /\
  find_end_time_pinned ns_tb 1000 35 = Panic /\ find_end_time ns_tb 1000 35 = Ok 40.
Proof. vm_compute. repeat split. Qed.
Print Assumptions C10_end_time_nostss_refuted.

(* the pinned cropStsc: a second entry with the same first chunk (cut inside the first chunk of a run), and the id of a
   dropped entry for the split entry when the ids vary *)
Definition cs_box : stsc_box := mkStsc [mkEntry 1 4 1; mkEntry 2 3 5; mkEntry 4 1 11] 0 [2; 1; 3].
Theorem C10_stsc_pinned_refuted :
  crop_stsc_pinned cs_box 2 = Ok (mkStsc [mkEntry 1 4 1; mkEntry 1 2 1] 0 [2; 1; 3; 2]) /\
  crop_stsc cs_box 2 = Ok (mkStsc [mkEntry 1 2 1] 0 [2]) /\
  crop_stsc_pinned cs_box 9 = Ok (mkStsc [mkEntry 1 4 1; mkEntry 2 3 5; mkEntry 3 2 8] 0 [2; 1; 3; 1]) /\
  crop_stsc cs_box 9 = Ok (mkStsc [mkEntry 1 4 1; mkEntry 2 3 5; mkEntry 3 2 8] 0 [2; 1; 1]).
Proof. vm_compute. repeat split. Qed.
Print Assumptions C10_stsc_pinned_refuted.

(* fillTrakOutsAndByteRanges, any number of tracks with arbitrary chunk interleaving: when the loop ends, every track
   has received one new offset per kept chunk, and the new mdat payload (concatenation of the byte ranges, merged or not)
   holds at (new offset - firstOffset) exactly the bytes the input file holds at the old chunk offset, for the kept
   (possibly truncated) size of the chunk.  Hypotheses (static_ok): consistent tables, non-zero track ids, chunk offsets
   in [1, 2^62), chunks inside the file; 2^62 + total sample bytes < 2^64. *)
Theorem C10_layout : forall file ts0 fuel ts' ranges first',
  Forall (static_ok file) ts0 -> Forall (fun t => ts_next t = 1 /\ ts_offsets t = []) ts0 ->
  4611686018427387904 + pot ts0 < 18446744073709551616 ->
  fill_loop fuel ts0 [] 0 0 = Ok (ts', ranges, first') ->
  map static ts' = map static ts0 /\
  Forall (fun t => static_ok file t /\ ts_next t = ts_last_chunk t + 1 /\ lenN (ts_offsets t) = ts_last_chunk t /\
                   forall c, 1 <= c <= ts_last_chunk t ->
                             exists no, nthN (ts_offsets t) (c - 1) = Some no /\
                                        chunk_placed file (out_bytes file ranges) first' t c no) ts'.
Proof. exact layout_correct. Qed.
Print Assumptions C10_layout.

(* ... hence every kept sample n <= k_t of every track: sub out (new_offset n) (size n) = sub in (old_offset n) (size n) *)
Theorem C10_layout_samples : forall file out first t c no n, static_ok file t ->
  chunk_placed file out first t c no -> S_chunk_of (ts_tb t) n = Some c -> 1 <= n <= ts_last_sample t ->
  n <= nsamples (ts_tb t) ->
  exists off sz, S_offset_of (ts_tb t) n = Some off /\ S_size (ts_tb t) n = Some sz /\
    sublist out (no - first + S_total_size (ts_tb t) (S_first_in_chunk (ts_tb t) c) (n - 1)) sz = sublist file off sz.
Proof. exact sample_placed. Qed.
Print Assumptions C10_layout_samples.

(* fillTrakOutsAndByteRanges terminates: on tracks satisfying static_ok the model loop, given one unit of fuel per kept
   chunk plus one (fill_fuel = 1 + sum of lastChunk.ChunkNr), returns a result — never OutOfFuel, never Err/Panic.
   static_okb is the computable form of static_ok; the two-track example satisfies every hypothesis of C10_layout_total. *)
Definition ex_file : list N := repeat 7 400.
Definition ex_ts0 : list trak_state :=
  [mkTS 1 ex_tb 5 3 1 [];
   mkTS 2 (mkTables [4] [10] None (mkStsc [mkEntry 1 2 1] 1 []) (mkStsz 3 4 []) None (Some [150; 250]) None None) 3 2 1 []].
Example ex_static : forallb (static_okb ex_file) ex_ts0 = true /\
  (4611686018427387904 + pot ex_ts0 <? 18446744073709551616) = true /\
  fill_loop (fill_fuel ex_ts0) ex_ts0 [] 0 0 =
    Ok ([mkTS 1 ex_tb 5 3 4 [100; 115; 131]; mkTS 2 (ts_tb (nth 1 ex_ts0 (mkTS 0 ex_tb 0 0 0 []))) 3 2 3 [109; 128]],
        [(100, 108); (150, 155); (200, 212); (250, 252); (300, 307)], 100).
Proof. vm_compute. repeat split. Qed.

Theorem C10_static_okb : forall file t, static_okb file t = true -> static_ok file t.
Proof. exact static_okb_ok. Qed.
Print Assumptions C10_static_okb.

Theorem C10_fill_terminates : forall file ts0,
  Forall (static_ok file) ts0 -> Forall (fun t => ts_next t = 1 /\ ts_offsets t = []) ts0 ->
  exists ts' ranges first', fill_loop (fill_fuel ts0) ts0 [] 0 0 = Ok (ts', ranges, first').
Proof. exact fill_terminates. Qed.
Print Assumptions C10_fill_terminates.

(* C10_layout without the hypothesis that the loop returns *)
Theorem C10_layout_total : forall file ts0,
  Forall (static_ok file) ts0 -> Forall (fun t => ts_next t = 1 /\ ts_offsets t = []) ts0 ->
  4611686018427387904 + pot ts0 < 18446744073709551616 ->
  exists ts' ranges first', fill_loop (fill_fuel ts0) ts0 [] 0 0 = Ok (ts', ranges, first') /\
  map static ts' = map static ts0 /\
  Forall (fun t => static_ok file t /\ ts_next t = ts_last_chunk t + 1 /\ lenN (ts_offsets t) = ts_last_chunk t /\
                   forall c, 1 <= c <= ts_last_chunk t ->
                             exists no, nthN (ts_offsets t) (c - 1) = Some no /\
                                        chunk_placed file (out_bytes file ranges) first' t c no) ts'.
Proof. exact layout_total. Qed.
Print Assumptions C10_layout_total.

(* ... the byte ranges handed to writeMdat lie in the input file, firstOffset < 2^62, and the new payload is not longer
   than the sample bytes of the tracks *)
Theorem C10_layout_ranges : forall file ts0 fuel ts' ranges first',
  Forall (static_ok file) ts0 -> Forall (fun t => ts_next t = 1 /\ ts_offsets t = []) ts0 ->
  4611686018427387904 + pot ts0 < 18446744073709551616 ->
  fill_loop fuel ts0 [] 0 0 = Ok (ts', ranges, first') ->
  Forall (range_in file) ranges /\ first' < 4611686018427387904 /\ lenN (out_bytes file ranges) <= pot ts0.
Proof. exact layout_ranges. Qed.
Print Assumptions C10_layout_ranges.

(* writeUptoMdat, the duration arithmetic (property text: "header durations do not exceed the originals"): whenever it
   succeeds, every tkhd duration is the new duration and does not exceed the original one, mdhd durations are untouched,
   every edit-list segment duration is <= the original, and the new mvhd duration does not exceed ANY bound that some
   original tkhd duration respects — in particular the original mvhd duration of a conforming file (mvhd duration >= the
   longest track).  No hypothesis on the numbers (64-bit wrap of endTime*timescale included). *)
Example ex_hdr : write_upto_mdat_durs 1500 1000 600 [(3000, 7, None); (4000, 9, Some [[3000; 10]; [5]])]
                 = Ok (900, [(900, 7, None); (900, 9, Some [[3000; 10]; [5]])]) /\
                 write_upto_mdat_durs 1500 1000 600 [(899, 7, None)] = Err.
Proof. vm_compute. split; reflexivity. Qed.
Theorem C10_header_durations : forall et ets mvts tks nd tks',
  write_upto_mdat_durs et ets mvts tks = Ok (nd, tks') ->
  Forall2 (fun old new => tk_dur new = nd /\ nd <= tk_dur old /\ md_dur new = md_dur old /\ elst_le (tk_elst new) (tk_elst old))
          tks tks' /\
  (forall mv, (exists t, In t tks /\ tk_dur t <= mv) -> nd <= mv).
Proof. exact header_durations. Qed.
Print Assumptions C10_header_durations.

(* without that guard the mvhd part of the property text is false of the code (known finding C10-F9): the original mvhd
   duration is never looked at *)
Theorem C10_mvhd_duration_refuted :
  exists et ets mvts mv tks nd tks', write_upto_mdat_durs et ets mvts tks = Ok (nd, tks') /\ mv < nd /\
    Forall (fun t => mv < tk_dur t) tks.
Proof. exact mvhd_duration_refuted. Qed.
Print Assumptions C10_mvhd_duration_refuted.

(* writeMdat on a lazily decoded input mdat (the tool's mode), ranges inside the file, fewer than 2^32-8 bytes in all:
   it succeeds and writes the 8-byte header (size, "mdat") followed by exactly the bytes of the ranges, in order
   (C08's model of MdatBox.CopyData / io.CopyN, any short-read behaviour of the reader at EOF) *)
Example ex_write_mdat : write_mdat ex_file false (C08Model.mdat_lazy 20 true 300) [(100, 103); (200, 200)]
                        = Ok [0; 0; 0; 13; 109; 100; 97; 116; 7; 7; 7; 7; 7].
Proof. vm_compute. reflexivity. Qed.
Theorem C10_write_mdat : forall file zeof startPos large payloadLen rs,
  0 < payloadLen -> lenN file < 9223372036854775808 -> Forall (range_in file) rs ->
  ranges_len rs + 8 < 4294967296 ->
  write_mdat file zeof (C08Model.mdat_lazy startPos large payloadLen) rs
  = Ok (C08Model.be32 (ranges_len rs + 8) ++ C08Model.name_mdat ++ out_bytes file rs) /\
  lenN (C08Model.be32 (ranges_len rs + 8) ++ C08Model.name_mdat) = mdat_out_hdr /\
  lenN (out_bytes file rs) = ranges_len rs.
Proof. exact write_mdat_correct. Qed.
Print Assumptions C10_write_mdat.

(* END TO END (fillTrakOutsAndByteRanges -> cropStblChildren -> updateChunkOffsets -> the output file), any number of
   tracks, stco or co64, arbitrary interleaving.  The output file is  pre ++ hdr ++ (concatenated byte ranges)  where pre
   stands for the S bytes of the re-encoded non-mdat boxes (their encoding is not modelled: ANY S bytes) and hdr for the
   mdat header; h is the header size updateChunkOffsets assumes (the Go text: 8), which must be the length of hdr.
   For every track, whenever cropStblChildren and updateChunkOffsets succeed on it (they refuse an stco offset >= 2^32 —
   repaired text 864f0da):
   * the cropped tables are consistent (every C09 theorem applies), the output has k samples in lastChunk chunks;
   * every new chunk offset o satisfies  S + h <= o  and  o + (bytes of the kept part of the chunk) <= S + h + |payload|
     ("chunk offsets point inside the new mdat");
   * every kept sample n <= k, located through the OUTPUT's tables (S_offset_of / S_size of C09Spec on the cropped and
     shifted tables), has the size it had in the input and the output file holds there exactly the input's bytes.
   cut_ok: k within 1..N and lastChunk = the chunk of sample k (what findTrakEnds returns: C10_k). *)
Example ex_cut : Forall cut_ok ex_ts0.
Proof. repeat constructor; vm_compute; try reflexivity; intros H; discriminate H. Qed.
Theorem C10_samples_end_to_end : forall file ts0 S h pre hdr,
  Forall (static_ok file) ts0 -> Forall (fun t => ts_next t = 1 /\ ts_offsets t = []) ts0 -> Forall cut_ok ts0 ->
  4611686018427387904 + 2 * pot ts0 < 18446744073709551616 ->
  lenN pre = S -> lenN hdr = h -> S + h + pot ts0 < 18446744073709551616 ->
  exists ts' ranges first', fill_loop (fill_fuel ts0) ts0 [] 0 0 = Ok (ts', ranges, first') /\
    map static ts' = map static ts0 /\ Forall (range_in file) ranges /\
    Forall (fun t => forall tb' tb2, crop_tables (ts_tb t) (ts_last_sample t) (ts_offsets t) = Ok tb' ->
      shift_track (shift_delta h S first') tb' = Ok tb2 ->
      consistent tb' = true /\ nsamples tb2 = ts_last_sample t /\ nchunks tb2 = ts_last_chunk t /\
      (forall c, 1 <= c <= ts_last_chunk t ->
         exists o, S_chunk_offset tb2 c = Some o /\ S + h <= o /\
                   o + csize (ts_tb t) (ts_last_sample t) c <= S + h + lenN (out_bytes file ranges)) /\
      (forall n, 1 <= n <= ts_last_sample t ->
         exists off off' sz, S_offset_of (ts_tb t) n = Some off /\ S_size (ts_tb t) n = Some sz /\
                             S_offset_of tb2 n = Some off' /\ S_size tb2 n = Some sz /\
                             sublist (pre ++ hdr ++ out_bytes file ranges) off' sz = sublist file off sz)) ts'.
Proof. exact samples_end_to_end. Qed.
Print Assumptions C10_samples_end_to_end.

(* cropStblChildren / updateChunkOffsets over all tracks succeed exactly when they succeed track by track *)
Theorem C10_update_chunk_offsets_tracks : forall h S first tbs tbs',
  update_chunk_offsets_h h S first tbs = Ok tbs' ->
  Forall2 (fun a b => shift_track (shift_delta h S first) a = Ok b) tbs tbs'.
Proof. exact (fun h S first => shift_tracks_Forall2 (shift_delta h S first)). Qed.
Print Assumptions C10_update_chunk_offsets_tracks.

Theorem C10_crop_all_tracks : forall ts tbs, crop_all ts = Ok tbs ->
  Forall2 (fun t b => crop_tables (ts_tb t) (ts_last_sample t) (ts_offsets t) = Ok b) ts tbs.
Proof. exact crop_all_Forall2. Qed.
Print Assumptions C10_crop_all_tracks.

(* the header size assumed by updateChunkOffsets (h) and the header written by writeMdat must agree: with the size of the
   INPUT's 16-byte largesize mdat header in the shift and the 8-byte header writeMdat always writes (C10_write_mdat),
   sample 1 of the output is read 8 bytes too far *)
Theorem C10_offsets_input_header_refuted :
  exists ts' ranges tb' tb8 tb16 pre hdr,
    fill_loop (fill_fuel [mkTS 1 wx_tb 5 3 1 []]) [mkTS 1 wx_tb 5 3 1 []] [] 0 0 = Ok (ts', ranges, 100) /\
    lenN pre = 50 /\ lenN hdr = 8 /\
    crop_all ts' = Ok [tb'] /\
    update_chunk_offsets_h 8 50 100 [tb'] = Ok [tb8] /\ update_chunk_offsets_h 16 50 100 [tb'] = Ok [tb16] /\
    S_offset_of wx_tb 1 = Some 100 /\ S_offset_of tb8 1 = Some 58 /\ S_offset_of tb16 1 = Some 66 /\
    sublist (pre ++ hdr ++ out_bytes wx_file ranges) 58 4 = sublist wx_file 100 4 /\
    sublist (pre ++ hdr ++ out_bytes wx_file ranges) 66 4 <> sublist wx_file 100 4.
Proof. exact wrong_header_refuted. Qed.
Print Assumptions C10_offsets_input_header_refuted.

(* the pinned updateChunkOffsets (f87a9e4) stored uint32(offset + delta): an stco offset that moves past 2^32 wrapped
   (known_findings C10-F8, witness replayed on cropMP4 with a virtual 4 GiB file); the repaired text refuses it *)
Theorem C10_stco_wrap_refuted :
  shift_stco_pinned (shift_delta 8 8556 36) [36; 4294960036] = [8564; 1268] /\
  shift_stco (shift_delta 8 8556 36) [36; 4294960036] = Err /\
  shift_co64 (shift_delta 8 8564 44) [44; 4294960044] = [8572; 4294968572].
Proof. vm_compute. repeat split. Qed.
Print Assumptions C10_stco_wrap_refuted.

(* ... and the OUTPUT is readable through the C09 model: the shifted tables are consistent (every C09 theorem applies to
   the output file) and TrakBox.GetRangesForSampleInterval(n, n) on them (C09's trak_get_ranges, C09_byte_ranges) returns
   exactly one range, which holds the input's bytes of sample n *)
Theorem C10_output_readable : forall file ts0 S h pre hdr,
  Forall (static_ok file) ts0 -> Forall (fun t => ts_next t = 1 /\ ts_offsets t = []) ts0 -> Forall cut_ok ts0 ->
  4611686018427387904 + 2 * pot ts0 < 18446744073709551616 ->
  lenN pre = S -> lenN hdr = h -> S + h + 2 * pot ts0 < 18446744073709551616 ->
  exists ts' ranges first', fill_loop (fill_fuel ts0) ts0 [] 0 0 = Ok (ts', ranges, first') /\
    map static ts' = map static ts0 /\
    Forall (fun t => forall tb' tb2, crop_tables (ts_tb t) (ts_last_sample t) (ts_offsets t) = Ok tb' ->
      shift_track (shift_delta h S first') tb' = Ok tb2 ->
      consistent tb2 = true /\
      (forall n, 1 <= n <= ts_last_sample t ->
         exists off off' sz, S_offset_of (ts_tb t) n = Some off /\ S_size (ts_tb t) n = Some sz /\
                             trak_get_ranges tb2 n n = Ok [mkRange off' sz] /\
                             sublist (pre ++ hdr ++ out_bytes file ranges) off' sz = sublist file off sz)) ts'.
Proof. exact output_readable. Qed.
Print Assumptions C10_output_readable.

(* THE COMPOSED PROPERTY, about crop_to_time itself = findTrakEnds -> fillTrakOutsAndByteRanges -> cropStblChildren ->
   updateChunkOffsets (the function the `virt` correspondence ties to cropMP4 on every run).  Input: any number of tracks
   satisfying trak_pre (static_ok; stts deltas positive; the rescaled end time tet lies inside the track and at least one
   sample starts before it).  Whenever crop_to_time succeeds, with the output file = S arbitrary bytes ++ 8-byte mdat
   header ++ the byte ranges: for every track, k = the number of samples starting before tet (k_of), and track_out:
   the output tables are consistent, hold k samples in chunk_of(k) chunks, their per-sample lists (durations, sizes,
   composition offsets, sync samples, sdtp, chunk membership) are the k-prefixes of the input's (prefix_lists), every chunk
   offset lies inside the new mdat payload, and every kept sample read through the output tables (S_offset_of, S_size and
   C09's trak_get_ranges) yields the input's bytes. *)
Definition ex_traks : list trak_in :=
  [mkTI 1 1000 ex_tb;
   mkTI 2 500 (mkTables [4] [10] None (mkStsc [mkEntry 1 2 1] 1 []) (mkStsz 3 4 []) None (Some [150; 250]) None None)].
Example ex_trak_pre : Forall (trak_pre ex_file 52 1000) ex_traks /\
  exists sh rg, crop_to_time ex_traks 52 1000 60 = Ok (sh, rg, [5; 3]).
Proof.
  split.
  - constructor; [|constructor; [|constructor]].
    + split; [apply static_okb_ok; vm_compute; reflexivity|]. split; [vm_compute; reflexivity|].
      exists 52. split; [vm_compute; reflexivity|]. split; [vm_compute; reflexivity|]. vm_compute. intros H; discriminate H.
    + split; [apply static_okb_ok; vm_compute; reflexivity|]. split; [vm_compute; reflexivity|].
      exists 26. split; [vm_compute; reflexivity|]. split; [vm_compute; reflexivity|]. vm_compute. intros H; discriminate H.
  - eexists. eexists. vm_compute. reflexivity.
Qed.
Theorem C10_crop_to_time : forall file traks et ets S pre hdr shifted ranges ks,
  Forall (trak_pre file et ets) traks ->
  4611686018427387904 + 2 * total_bytes traks < 18446744073709551616 ->
  lenN pre = S -> lenN hdr = mdat_out_hdr -> S + mdat_out_hdr + 2 * total_bytes traks < 18446744073709551616 ->
  crop_to_time traks et ets S = Ok (shifted, ranges, ks) ->
  Forall (range_in file) ranges /\
  exists ts0, Forall2 (state_of et ets) traks ts0 /\ Forall cut_ok ts0 /\ ks = map ts_last_sample ts0 /\
    Forall2 (track_out file (pre ++ hdr ++ out_bytes file ranges) S mdat_out_hdr (lenN (out_bytes file ranges)))
            (map static ts0) shifted.
Proof. exact crop_to_time_full. Qed.
Print Assumptions C10_crop_to_time.

(* cropMP4 as a whole (crop_mp4_file / crop_mp4_output of C10FileModel.v) *)

(* C10_layout / C10_layout_total assume NOTHING about the order of the chunk offsets: static_ok only asks every chunk to lie
   inside the file at an offset in [1, 2^62).  The loop always takes the smallest next offset over the tracks, writes the
   chunks in the order it takes them and never merges two ranges unless the second starts right after the first.  A layout
   with offsets DEcreasing inside a track (300, 120, 100, 103), chunks of two tracks sharing bytes (100..105 / 104..105 /
   105..106 / 103..106), a zero-size chunk (120, sample of size 0) and adjacent chunks satisfies every hypothesis; the
   overlapping bytes are simply copied twice. *)
Definition wild_t1 : tables :=
  mkTables [4] [10] None (mkStsc [mkEntry 1 1 1] 1 []) (mkStsz 0 4 [5; 0; 6; 4]) (Some [300; 120; 100; 103]) None None None.
Definition wild_t2 : tables :=
  mkTables [3] [10] None (mkStsc [mkEntry 1 1 1] 1 []) (mkStsz 2 3 []) None (Some [105; 104; 305]) None None.
Definition wild_ts0 : list trak_state := [mkTS 1 wild_t1 4 4 1 []; mkTS 2 wild_t2 3 3 1 []].
Example ex_wild_layout : forallb (static_okb ex_file) wild_ts0 = true /\
  (4611686018427387904 + pot wild_ts0 <? 18446744073709551616) = true /\
  exists ts', fill_loop (fill_fuel wild_ts0) wild_ts0 [] 0 0 =
    Ok (ts', [(105, 106); (104, 105); (300, 304); (120, 119); (100, 105); (103, 106); (305, 306)], 105) /\
    map ts_offsets ts' = [[109; 114; 114; 120]; [105; 107; 124]].
Proof. split; [vm_compute; reflexivity|]. split; [vm_compute; reflexivity|]. eexists. vm_compute. split; reflexivity. Qed.

(* ... so C10_layout_total applies to it as it stands: every chunk of both tracks is placed, the shared bytes twice *)
Theorem C10_layout_any_order : exists ts' ranges first',
  fill_loop (fill_fuel wild_ts0) wild_ts0 [] 0 0 = Ok (ts', ranges, first') /\
  Forall (fun t => lenN (ts_offsets t) = ts_last_chunk t /\
                   forall c, 1 <= c <= ts_last_chunk t ->
                             exists no, nthN (ts_offsets t) (c - 1) = Some no /\
                                        chunk_placed ex_file (out_bytes ex_file ranges) first' t c no) ts'.
Proof.
  destruct ex_wild_layout as [Hs [Hb _]].
  assert (Hst : Forall (static_ok ex_file) wild_ts0).
  { apply Forall_forall. intros t Ht. apply static_okb_ok. rewrite forallb_forall in Hs. apply Hs, Ht. }
  destruct (layout_total ex_file wild_ts0 Hst) as [ts' [ranges [first' [Hrun [_ Hall]]]]].
  - repeat constructor.
  - apply N.ltb_lt. exact Hb.
  - exists ts', ranges, first'. split; [exact Hrun|]. revert Hall. apply Forall_impl. intros t [_ [_ [A B]]]. split; assumption.
Qed.
Print Assumptions C10_layout_any_order.

(* findEndTime chooses the FIRST track whose handler is "vide", else the FIRST whose handler is "soun" *)
Theorem C10_reference_track : forall hs ref, find_sync_trak hs = Some ref -> ref_choice hs ref /\ In ref (map th_trak hs).
Proof. exact find_sync_trak_choice. Qed.
Print Assumptions C10_reference_track.

(* findEndTime succeeded: the end time is the start of the first sync sample (every sample when there is no stss) that starts
   at or after r = floor(ms * timescale / 1000) — except, without stss, when no sample starts at or after r: then it is the end
   of the track (cropMP4 as a whole then fails: C10_crop_end_to_end has no such case) *)
Theorem C10_end_time_inv : forall tb ts ms et, consistent tb = true -> deltas_strict tb = true ->
  find_end_time tb ts ms = Ok et ->
  u64 (ms * ts) / 1000 < sumN (durs tb) /\
  (first_sync_from tb (u64 (ms * ts) / 1000) et \/ (t_stss tb = None /\ et = sumN (durs tb))).
Proof. exact find_end_time_inv. Qed.
Print Assumptions C10_end_time_inv.

(* C10-F6, the exact guard: when ms milliseconds are a whole number of track units the end time is the property's own
   (exact comparison start/timescale >= ms/1000); without the guard it can lie before the request *)
Theorem C10_end_time_exact : forall tb ts ms T, ms * ts < 18446744073709551616 -> (ms * ts) mod 1000 = 0 ->
  first_sync_from tb (u64 (ms * ts) / 1000) T -> first_sync_exact tb ts ms T.
Proof. exact first_sync_exact_of. Qed.
Print Assumptions C10_end_time_exact.
Theorem C10_end_time_exact_refuted :
  exists tb ts ms T, consistent tb = true /\ deltas_strict tb = true /\ find_end_time tb ts ms = Ok T /\ T * 1000 < ms * ts.
Proof. exact end_time_before_request. Qed.
Print Assumptions C10_end_time_exact_refuted.

(* C10-F7, the exact guard: k_t counts the samples starting before floor(T * timescale_t / timescale_ref); that is the exact
   count (start/timescale_t < T/timescale_ref) when the timescales are equal or the rescaled end time is a whole number *)
Theorem C10_k_exact : forall tb ts et ets, 0 < ets -> et * ts < 18446744073709551616 -> (et * ts) mod ets = 0 ->
  k_of tb (u64 (et * ts) / ets) = k_exact tb ts et ets.
Proof. exact k_of_exact. Qed.
Print Assumptions C10_k_exact.
Theorem C10_k_same_timescale : forall tb ts et, 0 < ts -> k_of tb et = k_exact tb ts et ts.
Proof. exact k_of_same. Qed.
Print Assumptions C10_k_same_timescale.
Theorem C10_k_exact_refuted :
  exists tb ts et ets k t c, consistent tb = true /\ deltas_strict tb = true /\
    find_trak_end tb ts et ets = Ok (k, t, c) /\ k = 36 /\ k_exact tb ts et ets = 37.
Proof. exact k_rounding_refuted. Qed.
Print Assumptions C10_k_exact_refuted.

(* the sizes of the table boxes (C10FileModel) are C01's Size() of the same boxes *)
Theorem C10_table_sizes_c01 :
  (forall v f es, C01Model.size_leaf (C01Model.LStts v f es) = stts_box_size (map fst es)) /\
  (forall v f ends offs zoffs, lenN zoffs = lenN offs ->
     C01Model.size_leaf (C01Model.LCtts v f ends offs) = ctts_box_size (mkCtts ends zoffs)) /\
  (forall v f es single ids ents, lenN ents = lenN es ->
     C01Model.size_leaf (C01Model.LStsc v f es single ids) = stsc_box_size (mkStsc ents single ids)) /\
  (forall v f uni num ss, C01Model.size_leaf (C01Model.LStsz v f uni num ss) = stsz_box_size (mkStsz uni num ss)) /\
  (forall v f es, C01Model.size_leaf (C01Model.LSdtp v f es) = sdtp_box_size es) /\
  (forall name v f items, C01Model.size_leaf (C01Model.LTab name 4 v f items) = stco_box_size items) /\
  (forall name v f items, C01Model.size_leaf (C01Model.LTab name 4 v f items) = stss_box_size items) /\
  (forall name v f items, C01Model.size_leaf (C01Model.LTab name 8 v f items) = co64_box_size items).
Proof.
  exact (conj stts_size_c01 (conj ctts_size_c01 (conj stsc_size_c01 (conj stsz_size_c01 (conj sdtp_size_c01
         (conj stco_size_c01 (conj stss_size_c01 co64_size_c01))))))).
Qed.
Print Assumptions C10_table_sizes_c01.

(* updateChunkOffsets computes sizeWithoutMdat from the CROPPED tables; shifting the offsets resizes nothing, so the size used
   is the size of the tables written *)
Theorem C10_size_without_mdat : forall traks et ets rest shifted ranges ks swm,
  crop_to_time_sz traks et ets rest = Ok (shifted, ranges, ks, swm) ->
  crop_to_time traks et ets swm = Ok (shifted, ranges, ks) /\ swm = size_without_mdat rest shifted.
Proof. exact crop_to_time_sz_ok. Qed.
Print Assumptions C10_size_without_mdat.

(* writeMdat succeeded (lazy mode, the tool's): fewer than 2^32-8 bytes, and exactly header ++ bytes of the ranges *)
Theorem C10_write_mdat_inv : forall file zeof startPos large payloadLen rs mb,
  0 < payloadLen -> lenN file < 9223372036854775808 -> Forall (range_in file) rs ->
  ranges_len rs + 8 < 18446744073709551616 ->
  write_mdat file zeof (C08Model.mdat_lazy startPos large payloadLen) rs = Ok mb ->
  ranges_len rs + 8 < 4294967296 /\
  mb = C08Model.be32 (ranges_len rs + 8) ++ C08Model.name_mdat ++ out_bytes file rs.
Proof. exact write_mdat_lazy_inv. Qed.
Print Assumptions C10_write_mdat_inv.

(* writeMdat when the input mdat was decoded into memory (File.Mdat.Data; C08's mem_slice model of CopyData): the same
   bytes, for ranges that start INSIDE the input mdat's payload; the two modes differ on an empty range at the very end of
   the payload (lazy: nothing copied; in memory: "invalid range", a refusal) *)
Example ex_write_mdat_mem :
  C08Spec.box_in_file ex_file 20 true 300 = true /\ Forall (range_in_mdat 20 true 300) [(100, 103); (200, 200)] /\
  write_mdat ex_file false (C08Model.mdat_mem ex_file 20 true 300) [(100, 103); (200, 200)]
  = Ok [0; 0; 0; 13; 109; 100; 97; 116; 7; 7; 7; 7; 7].
Proof.
  split; [vm_compute; reflexivity|]. split; [|vm_compute; reflexivity].
  repeat constructor; cbn; lia.
Qed.
Theorem C10_write_mdat_mem : forall file zeof startPos large payloadLen rs,
  C08Spec.box_in_file file startPos large payloadLen = true ->
  Forall (range_in_mdat startPos large payloadLen) rs -> ranges_len rs + 8 < 4294967296 ->
  write_mdat file zeof (C08Model.mdat_mem file startPos large payloadLen) rs
  = Ok (C08Model.be32 (ranges_len rs + 8) ++ C08Model.name_mdat ++ out_bytes file rs) /\
  lenN (out_bytes file rs) = ranges_len rs.
Proof. exact write_mdat_mem_correct. Qed.
Print Assumptions C10_write_mdat_mem.
Theorem C10_write_mdat_modes_differ :
  exists file rs, write_mdat file false (C08Model.mdat_lazy 20 false 80) rs
                  = Ok (C08Model.be32 12 ++ C08Model.name_mdat ++ out_bytes file rs) /\
                  write_mdat file false (C08Model.mdat_mem file 20 false 80) rs = Err.
Proof. exact write_mdat_modes_differ. Qed.
Print Assumptions C10_write_mdat_modes_differ.

(* THE PROPERTY, END TO END, about cropMP4 = findEndTime -> findTrakEnds -> fillTrakOutsAndByteRanges -> cropStblChildren ->
   updateChunkOffsets (sizeWithoutMdat from the cropped tables) -> [non-mdat boxes] -> writeMdat.
   Input: any number of tracks with handler types; trak_wf per track = static_ok (consistent tables, track id <> 0, chunk
   offsets in [1,2^62) in ANY order, chunks inside the file), every stts delta positive, 32-bit timescale (a track without
   samples makes the tool fail: C10_empty_track); distinct track ids (the domain on which the positional model mirrors the tool's map keyed by track id); ms = the requested duration; rest = the bytes of the non-mdat boxes other than the eight table boxes.
   NOTHING is assumed about the end time: that it lies inside every track follows from the tool succeeding.
   Whenever crop_mp4_file succeeds and writeMdat (lazy input mdat) succeeds, with pre = the encoded non-mdat boxes
   (any bytes of the length Size() gives them: rest + the table boxes of the OUTPUT tables):
   * the track ids are pairwise distinct (the tool keys its per-track state by track id, the model by position; findTrakEnds,
     repaired text /repo 4fe9823, refuses a repeated id: finding C10-F10);
   * the reference track is the first "vide" track, else the first "soun" track; endTimescale is its timescale;
   * T = et is the start of the first sync sample of the reference track starting at or after floor(ms*timescale/1000)
     (C10-F6: exact under C10_end_time_exact's guard), and that sample is not sample 1;
   * the output file is  pre ++ (32-bit size, "mdat") ++ the byte ranges, under 4 GiB of payload, and sizeWithoutMdat = |pre|;
   * for every track t (out_track): tet = the end time rescaled as findTrakEnds does (C10-F7: exact under C10_k_exact's
     guard) lies inside the track, k_t = number of samples of t starting before tet is >= 1, and the output tables are
     consistent, hold k_t samples, every per-sample list is the k_t-prefix of the input's, every chunk offset o has
     |pre| + 8 <= o and o + kept chunk bytes <= |pre| + 8 + payload ("chunk offsets point inside the new mdat" of the real
     layout), and every kept sample read through the OUTPUT tables yields the input's bytes. *)
Definition e2e_hs : list trak_h :=
  [mkTH 1 (mkTI 2 500 (mkTables [4] [10] None (mkStsc [mkEntry 1 2 1] 1 []) (mkStsz 3 4 []) None (Some [150; 250]) None None));
   mkTH 0 (mkTI 1 1000 ex_tb)].
Definition e2e_run_ok : bool :=
  match crop_mp4_file e2e_hs 45 60 with
  | Ok (et, ets, (sh, rg, ks, swm)) =>
    (et =? 50) && (ets =? 1000) && (swm =? 364) && (60 + sumN (map stbl_var_size sh) =? 364) &&
    (match ks with [3; 4] => true | _ => false end) && (match map stbl_var_size sh with [116; 188] => true | _ => false end)
  | _ => false
  end.
Example ex_e2e : Forall (trak_wf ex_file) (map th_trak e2e_hs) /\ distinct_ids e2e_hs /\ e2e_run_ok = true.
Proof.
  split.
  - constructor; [|constructor; [|constructor]].
    + split; [apply static_okb_ok; vm_compute; reflexivity|]. split; vm_compute; reflexivity.
    + split; [apply static_okb_ok; vm_compute; reflexivity|]. split; vm_compute; reflexivity.
  - split.
    { unfold distinct_ids. cbn. constructor; [intros [H|[]]; discriminate H|]. constructor; [intros []|constructor]. }
    vm_compute. reflexivity.
Qed.
Theorem C10_crop_end_to_end :
  forall file zeof startPos large payloadLen hs ms rest pre et ets shifted ranges ks swm outf,
  Forall (trak_wf file) (map th_trak hs) ->
  4611686018427387904 + 2 * total_bytes (map th_trak hs) < 18446744073709551616 ->
  0 < payloadLen -> lenN file < 9223372036854775808 ->
  crop_mp4_file hs ms rest = Ok (et, ets, (shifted, ranges, ks, swm)) ->
  lenN pre = rest + sumN (map stbl_var_size shifted) ->
  lenN pre + mdat_out_hdr + 2 * total_bytes (map th_trak hs) < 18446744073709551616 ->
  crop_mp4_output file zeof (C08Model.mdat_lazy startPos large payloadLen) pre ranges = Ok outf ->
  exists ref hdr, distinct_ids hs /\ ref_choice hs ref /\ ets = ti_ts ref /\ swm = lenN pre /\
    first_sync_from (ti_tb ref) (u64 (ms * ti_ts ref) / 1000) et /\
    outf = pre ++ hdr ++ out_bytes file ranges /\
    hdr = C08Model.be32 (lenN (out_bytes file ranges) + 8) ++ C08Model.name_mdat /\
    lenN (out_bytes file ranges) + 8 < 4294967296 /\
    Forall2 (out_track file outf (lenN pre) (lenN (out_bytes file ranges)) et ets) (map th_trak hs) shifted.
Proof. exact crop_end_to_end. Qed.
Print Assumptions C10_crop_end_to_end.

(* ... and with the input mdat decoded into memory (File.Mdat.Data, MdatBox.CopyData's slice branch = C08's mem_slice): the
   same conclusion when every byte range starts inside the input mdat's payload (range_in_mdat; CopyData refuses others) *)
Theorem C10_crop_end_to_end_mem :
  forall file zeof startPos large payloadLen hs ms rest pre et ets shifted ranges ks swm outf,
  Forall (trak_wf file) (map th_trak hs) ->
  4611686018427387904 + 2 * total_bytes (map th_trak hs) < 18446744073709551616 ->
  C08Spec.box_in_file file startPos large payloadLen = true ->
  crop_mp4_file hs ms rest = Ok (et, ets, (shifted, ranges, ks, swm)) ->
  Forall (range_in_mdat startPos large payloadLen) ranges ->
  lenN pre = rest + sumN (map stbl_var_size shifted) ->
  lenN pre + mdat_out_hdr + 2 * total_bytes (map th_trak hs) < 18446744073709551616 ->
  crop_mp4_output file zeof (C08Model.mdat_mem file startPos large payloadLen) pre ranges = Ok outf ->
  exists ref hdr, distinct_ids hs /\ ref_choice hs ref /\ ets = ti_ts ref /\ swm = lenN pre /\
    first_sync_from (ti_tb ref) (u64 (ms * ti_ts ref) / 1000) et /\
    outf = pre ++ hdr ++ out_bytes file ranges /\
    hdr = C08Model.be32 (lenN (out_bytes file ranges) + 8) ++ C08Model.name_mdat /\
    lenN (out_bytes file ranges) + 8 < 4294967296 /\
    Forall2 (out_track file outf (lenN pre) (lenN (out_bytes file ranges)) et ets) (map th_trak hs) shifted.
Proof. exact crop_end_to_end_mem. Qed.
Print Assumptions C10_crop_end_to_end_mem.

(* a track without samples: GetSampleNrAtTime never returns a sample number, so findEndTime / findTrakEnds (hence the tool)
   fail on it; this is why C10_crop_end_to_end needs no "at least one sample" hypothesis *)
Theorem C10_empty_track : forall tb t nr, consistent tb = true -> nsamples tb = 0 ->
  stts_get_sample_nr_at_time (t_stts_count tb) (t_stts_delta tb) t = Ok nr -> False.
Proof. exact sat_empty_track. Qed.
Print Assumptions C10_empty_track.

(* every byte range handed to writeMdat starts at a chunk offset of some track (ranges are only ever extended at their end) *)
Theorem C10_range_starts : forall hs ms rest et ets shifted ranges ks swm,
  crop_mp4_file hs ms rest = Ok (et, ets, (shifted, ranges, ks, swm)) ->
  Forall (fun r => off_of (map ti_tb (map th_trak hs)) (fst r)) ranges.
Proof. exact crop_range_starts. Qed.
Print Assumptions C10_range_starts.

(* the in-memory mode with hypotheses on the INPUT only: every chunk of every track starts inside the input mdat's payload
   and ends inside it (chunks_in_payload: trak_wf on the file cut at the end of the payload + every chunk offset in
   [payload start, payload end)) *)
Example ex_chunks_in_payload : C08Spec.box_in_file ex_file 92 false 300 = true /\
  Forall (chunks_in_payload ex_file (92 + C08Spec.hdr_len false) (92 + C08Spec.hdr_len false + 300)) (map th_trak e2e_hs).
Proof.
  split; [vm_compute; reflexivity|].
  assert (Hoff : forall l c o, get_offset l c = Ok o -> In o l).
  { intros l c o H. unfold get_offset in H. destruct ((c =? 0) || (lenN l <? c)); [discriminate|].
    unfold idx_m1 in H. destruct (c =? 0); [discriminate|]. unfold idx in H.
    destruct (nthN l (c - 1)) eqn:E; [|discriminate]. injection H as <-. exact (nthN_In _ _ _ E). }
  constructor; [|constructor; [|constructor]].
  - split.
    + split; [apply static_okb_ok; vm_compute; reflexivity|]. split; vm_compute; reflexivity.
    + intros c o H. apply Hoff in H. cbn in H. destruct H as [<-|[<-|[]]]; cbn; lia.
  - split.
    + split; [apply static_okb_ok; vm_compute; reflexivity|]. split; vm_compute; reflexivity.
    + intros c o H. apply Hoff in H. cbn in H. destruct H as [<-|[<-|[<-|[]]]]; cbn; lia.
Qed.
Theorem C10_crop_end_to_end_mem_input :
  forall file zeof startPos large payloadLen hs ms rest pre et ets shifted ranges ks swm outf,
  Forall (chunks_in_payload file (startPos + C08Spec.hdr_len large) (startPos + C08Spec.hdr_len large + payloadLen))
         (map th_trak hs) ->
  4611686018427387904 + 2 * total_bytes (map th_trak hs) < 18446744073709551616 ->
  C08Spec.box_in_file file startPos large payloadLen = true ->
  crop_mp4_file hs ms rest = Ok (et, ets, (shifted, ranges, ks, swm)) ->
  lenN pre = rest + sumN (map stbl_var_size shifted) ->
  lenN pre + mdat_out_hdr + 2 * total_bytes (map th_trak hs) < 18446744073709551616 ->
  crop_mp4_output file zeof (C08Model.mdat_mem file startPos large payloadLen) pre ranges = Ok outf ->
  exists ref hdr, distinct_ids hs /\ ref_choice hs ref /\ ets = ti_ts ref /\ swm = lenN pre /\
    first_sync_from (ti_tb ref) (u64 (ms * ti_ts ref) / 1000) et /\
    outf = pre ++ hdr ++ out_bytes file ranges /\
    hdr = C08Model.be32 (lenN (out_bytes file ranges) + 8) ++ C08Model.name_mdat /\
    lenN (out_bytes file ranges) + 8 < 4294967296 /\
    Forall2 (out_track file outf (lenN pre) (lenN (out_bytes file ranges)) et ets) (map th_trak hs) shifted.
Proof. exact crop_end_to_end_mem_input. Qed.
Print Assumptions C10_crop_end_to_end_mem_input.

(* cropMP4 including writeUptoMdat (crop_mp4_all): it succeeds only if crop_mp4_file does, with the same result, and the header
   durations do not exceed the originals (as C10_header_durations; mvhd under the conforming-input guard, known C10-F9) *)
Theorem C10_crop_mp4_durations : forall hs mvts tks ms rest et ets x nd tks',
  crop_mp4_all hs mvts tks ms rest = Ok (et, ets, x, (nd, tks')) ->
  crop_mp4_file hs ms rest = Ok (et, ets, x) /\
  Forall2 (fun old new => tk_dur new = nd /\ nd <= tk_dur old /\ md_dur new = md_dur old /\ elst_le (tk_elst new) (tk_elst old))
          tks tks' /\
  (forall mv, (exists t, In t tks /\ tk_dur t <= mv) -> nd <= mv).
Proof. exact crop_mp4_all_ok. Qed.
Print Assumptions C10_crop_mp4_durations.

(* C10-F10 (fixed, /repo 4fe9823): the pinned findTrakEnds let two tracks with the same track ID share one per-track state; the
   repaired text refuses them, so success implies pairwise distinct ids *)
Theorem C10_success_distinct_ids : forall hs ms rest r, crop_mp4_file hs ms rest = Ok r -> distinct_ids hs.
Proof. exact crop_mp4_file_distinct. Qed.
Print Assumptions C10_success_distinct_ids.
Example ex_dup_ids_refused :
  crop_mp4_file [mkTH 1 (mkTI 1 500 (ti_tb (th_trak (nth 0 e2e_hs (mkTH 0 (mkTI 0 0 ex_tb)))))); mkTH 0 (mkTI 1 1000 ex_tb)] 45 60 = Err.
Proof. vm_compute. reflexivity. Qed.
