(* C10SizeProofs.v — the box sizes of C10FileModel.v are the Size() of C01's box model (C01Model.size_leaf, imported
   read-only; tied to the real Size()/Encode by C01's own correspondence), for the table boxes as C09/C10 represent them. *)
From V.lib Require Import Base.
From V.c01 Require C01Model.
From V.c09 Require Import C09Model C09BaseProofs.
From V.c10 Require Import C10FileModel.

Lemma stts_size_c01 v f (es : list (N * N)) :
  C01Model.size_leaf (C01Model.LStts v f es) = stts_box_size (map fst es).
Proof. unfold stts_box_size. rewrite lenN_map. reflexivity. Qed.

Lemma ctts_size_c01 v f ends offs (zoffs : list Z) : lenN zoffs = lenN offs ->
  C01Model.size_leaf (C01Model.LCtts v f ends offs) = ctts_box_size (mkCtts ends zoffs).
Proof. intros H. unfold ctts_box_size. cbn [ct_off]. rewrite H. reflexivity. Qed.

Lemma stsc_size_c01 v f (es : list (N * N)) single ids (ents : list stsc_entry) : lenN ents = lenN es ->
  C01Model.size_leaf (C01Model.LStsc v f es single ids) = stsc_box_size (mkStsc ents single ids).
Proof. intros H. unfold stsc_box_size. cbn [sc_entries]. rewrite H. reflexivity. Qed.

Lemma stsz_size_c01 v f uni num ss :
  C01Model.size_leaf (C01Model.LStsz v f uni num ss) = stsz_box_size (mkStsz uni num ss).
Proof. reflexivity. Qed.

Lemma sdtp_size_c01 v f es : C01Model.size_leaf (C01Model.LSdtp v f es) = sdtp_box_size es.
Proof. reflexivity. Qed.

(* stco and stss are C01's 4-byte tables, co64 its 8-byte table *)
Lemma stco_size_c01 name v f items : C01Model.size_leaf (C01Model.LTab name 4 v f items) = stco_box_size items.
Proof. reflexivity. Qed.
Lemma stss_size_c01 name v f items : C01Model.size_leaf (C01Model.LTab name 4 v f items) = stss_box_size items.
Proof. reflexivity. Qed.
Lemma co64_size_c01 name v f items : C01Model.size_leaf (C01Model.LTab name 8 v f items) = co64_box_size items.
Proof. reflexivity. Qed.
