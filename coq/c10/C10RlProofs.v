(* C10RlProofs.v — run-length lemmas and the simple tables: cropStts, cropStsz, cropSdtp, cropStss. *)
From V.lib Require Import Base.
From V.c09 Require Import C09Model C09Spec C09BaseProofs C09SttsProofs.
From V.c10 Require Import C10Model.

Lemma firstnN_all {A} (l : list A) k : lenN l <= k -> firstnN l k = l.
Proof. unfold firstnN, lenN. intros. apply firstn_all2. lia. Qed.

Lemma firstnN_app_l {A} (l1 l2 : list A) k : k <= lenN l1 -> firstnN (l1 ++ l2) k = firstnN l1 k.
Proof.
  unfold firstnN, lenN. intros. rewrite firstn_app.
  replace (N.to_nat k - length l1)%nat with 0%nat by lia. cbn [firstn]. apply app_nil_r.
Qed.

Lemma firstnN_app_r {A} (l1 l2 : list A) k : lenN l1 <= k -> firstnN (l1 ++ l2) k = l1 ++ firstnN l2 (k - lenN l1).
Proof.
  unfold firstnN, lenN. intros. rewrite firstn_app, firstn_all2 by lia. f_equal. f_equal. lia.
Qed.

Lemma firstnN_repeat {A} (x : A) m k : k <= N.of_nat m -> firstnN (repeat x m) k = repeat x (N.to_nat k).
Proof. unfold firstnN. intros. rewrite firstn_repeat'. f_equal. lia. Qed.

Lemma lenN_firstnN {A} (l : list A) k : k <= lenN l -> lenN (firstnN l k) = k.
Proof. unfold firstnN, lenN. intros. rewrite firstn_length. lia. Qed.

Lemma slice_to_ok {A} (l : list A) k : k <= lenN l -> slice_to l k = Ok (firstnN l k).
Proof. unfold slice_to. intros. destruct (lenN l <? k) eqn:E; [lia|reflexivity]. Qed.

Lemma expand_rl_app {A} p : forall (vp : list A) q vq, lenN p = lenN vp ->
  expand_rl (p ++ q) (vp ++ vq) = expand_rl p vp ++ expand_rl q vq.
Proof.
  induction p as [|c p IH]; intros vp q vq H.
  - destruct vp; [reflexivity|rewrite lenN_cons, lenN_nil in H; lia].
  - destruct vp as [|v vp]; [rewrite lenN_cons, lenN_nil in H; lia|].
    rewrite !lenN_cons in H. cbn [app expand_rl]. rewrite IH by lia. apply app_assoc.
Qed.

(* cutting a run-length list inside entry (c, v): keep p, then rem <= c of the entry *)
Lemma expand_rl_cut {A} p : forall (vp : list A) c v rest vrest rem, lenN p = lenN vp -> rem <= c ->
  expand_rl (p ++ [rem]) (vp ++ [v]) = firstnN (expand_rl (p ++ c :: rest) (vp ++ v :: vrest)) (sumN p + rem).
Proof.
  intros vp c v rest vrest rem H Hr.
  rewrite !expand_rl_app by exact H. cbn [expand_rl]. rewrite app_nil_r.
  rewrite firstnN_app_r by (rewrite lenN_expand by exact H; lia).
  rewrite lenN_expand by exact H. f_equal.
  replace (sumN p + rem - sumN p) with rem by lia.
  rewrite firstnN_app_l by (rewrite lenN_repeat; lia).
  rewrite firstnN_repeat by lia. reflexivity.
Qed.

Lemma updN_app_mid (p : list N) c rest v : updN (p ++ c :: rest) (lenN p) v = p ++ v :: rest.
Proof.
  induction p as [|x p IH]; [reflexivity|]. rewrite lenN_cons. cbn [app updN].
  destruct (1 + lenN p =? 0) eqn:E; [lia|]. replace (1 + lenN p - 1) with (lenN p) by lia. rewrite IH. reflexivity.
Qed.

Lemma firstnN_split {A} (l : list A) k : k <= lenN l ->
  exists a b, l = a ++ b /\ lenN a = k /\ firstnN l k = a.
Proof.
  intros H. exists (firstnN l k), (skipn (N.to_nat k) l). split; [unfold firstnN; symmetry; apply firstn_skipn|].
  split; [apply lenN_firstnN; exact H|reflexivity].
Qed.

Lemma nthN_app_mid {A} (pre : list A) x post : nthN (pre ++ x :: post) (lenN pre) = Some x.
Proof. rewrite nthN_app. destruct (lenN pre <? lenN pre) eqn:E; [lia|]. rewrite N.sub_diag. reflexivity. Qed.

Lemma firstnN_snoc_split {A} (pre : list A) x post : firstnN (pre ++ x :: post) (lenN pre + 1) = pre ++ [x].
Proof.
  replace (pre ++ x :: post) with ((pre ++ [x]) ++ post) by (rewrite <- app_assoc; reflexivity).
  rewrite firstnN_app_l by (rewrite lenN_app, lenN_cons, lenN_nil; lia).
  apply firstnN_all. rewrite lenN_app, lenN_cons, lenN_nil. lia.
Qed.

Lemma forallb_firstnN {A} (f : A -> bool) l k : forallb f l = true -> forallb f (firstnN l k) = true.
Proof.
  intros H. rewrite <- (firstn_skipn (N.to_nat k) l), forallb_app in H. apply andb_prop in H. apply H.
Qed.

Lemma nthN_In {A} (l : list A) i x : nthN l i = Some x -> In x l.
Proof.
  revert i; induction l as [|y t IH]; intros i H; [discriminate|]. cbn [nthN] in H.
  destruct (i =? 0); [injection H as ->; left; reflexivity|right; exact (IH _ H)].
Qed.

Lemma In_nthN {A} (l : list A) x : In x l -> exists i, nthN l i = Some x.
Proof.
  induction l as [|y t IH]; intros H; [contradiction|]. destruct H as [->|H].
  - exists 0. reflexivity.
  - destruct (IH H) as [i Hi]. exists (i + 1). rewrite nthN_S. exact Hi.
Qed.

Lemma In_le_sum_map {A} (g : A -> N) l x : In x l -> g x <= sumN (map g l).
Proof.
  induction l as [|y t IH]; intros H; [contradiction|]. cbn [map sumN].
  destruct H as [->|H]; [lia|]. specialize (IH H). lia.
Qed.

Lemma crop_stts_loop_ok cs : forall last counted keep,
  counted < last -> last <= counted + sumN cs -> counted + sumN cs < 4294967296 ->
  exists p c rest, cs = p ++ c :: rest /\ counted + sumN p < last /\ last <= counted + sumN p + c /\
                   crop_stts_loop cs last counted keep = (counted + sumN p, keep + lenN p + 1).
Proof.
  induction cs as [|c cs IH]; intros last counted keep H1 H2 H3; [cbn in H2; lia|].
  cbn [sumN] in H2, H3. cbn [crop_stts_loop]. destruct (counted <? last) eqn:E; [|lia].
  rewrite u32_small by lia. destruct (last <=? counted + c) eqn:E2.
  - exists [], c, cs. cbn [app sumN]. change (lenN (@nil N)) with 0. split; [reflexivity|]. split; [lia|]. split; [lia|].
    f_equal; lia.
  - destruct (IH last (counted + c) (keep + 1) ltac:(lia) ltac:(lia) ltac:(lia)) as [p [c' [rest [Hc [A [B D]]]]]].
    exists (c :: p), c', rest. cbn [app sumN]. rewrite lenN_cons. split; [f_equal; exact Hc|].
    split; [lia|]. split; [lia|]. rewrite D. f_equal; lia.
Qed.

Lemma stts_crop_correct tb : consistent tb = true -> forall k, 1 <= k <= nsamples tb ->
  exists cs' ds', crop_stts (t_stts_count tb) (t_stts_delta tb) k = Ok (cs', ds') /\
    expand_rl cs' ds' = firstnN (durs tb) k /\
    lenN cs' = lenN ds' /\ sumN cs' = k /\ forallb is_u32 cs' = true /\ forallb is_u32 ds' = true.
Proof.
  intros H k Hk. destruct (stts_facts tb H) as [L [S [B [T LD]]]].
  destruct (consistent_parts tb H) as [_ [Hs _]]. unfold stts_ok in Hs.
  apply andb_prop in Hs. destruct Hs as [Hs _]. apply andb_prop in Hs. destruct Hs as [Hs Hd32].
  apply andb_prop in Hs. destruct Hs as [_ Hc32].
  destruct (crop_stts_loop_ok (t_stts_count tb) k 0 0 ltac:(lia) ltac:(lia) ltac:(lia))
    as [p [c [rest [Hcs [A [Bd D]]]]]].
  unfold crop_stts, durs. rewrite D. cbn [N.add] in *.
  rewrite sub32_small by lia. destruct (0 <? k - sumN p) eqn:E; [|lia].
  rewrite Hcs in *. rewrite lenN_app, lenN_cons in L.
  destruct (firstnN_split (t_stts_delta tb) (lenN p) ltac:(lia)) as [vp [vq [Hds [Lvp _]]]].
  destruct vq as [|v vrest]; [rewrite Hds, lenN_app, lenN_nil in L; lia|].
  rewrite Hds in *.
  assert (Hk0 : (lenN p + 1 =? 0) = false) by lia. rewrite Hk0.
  destruct (lenN (p ++ c :: rest) <? lenN p + 1) eqn:E2; [rewrite lenN_app, lenN_cons in E2; lia|]. cbn [orb rbind].
  replace (lenN p + 1 - 1) with (lenN p) by lia. rewrite updN_app_mid.
  rewrite !slice_to_ok by (rewrite lenN_app, lenN_cons; lia). cbn [rbind].
  rewrite firstnN_snoc_split, <- Lvp, firstnN_snoc_split.
  exists (p ++ [k - sumN p]), (vp ++ [v]). split; [reflexivity|].
  split; [|split; [|split; [|split]]].
  - rewrite (expand_rl_cut p vp c v rest vrest (k - sumN p)) by lia. f_equal. lia.
  - rewrite !lenN_app, !lenN_cons, !lenN_nil. lia.
  - rewrite sumN_app. cbn [sumN]. lia.
  - rewrite forallb_app in *. cbn [forallb] in *. apply andb_prop in Hc32. destruct Hc32 as [Hp _]. rewrite Hp.
    unfold is_u32. cbn [andb]. destruct (k - sumN p <? 4294967296) eqn:E3; [reflexivity|lia].
  - rewrite forallb_app in *. cbn [forallb] in *.
    apply andb_prop in Hd32. destruct Hd32 as [Hp Hv]. apply andb_prop in Hv. destruct Hv as [Hv _].
    rewrite Hp, Hv. reflexivity.
Qed.

Lemma stsz_crop_correct tb : consistent tb = true -> forall k, 1 <= k <= nsamples tb ->
  exists z', crop_stsz (t_stsz tb) k = Ok z' /\ sizes_of z' = firstnN (sizes tb) k /\
             sz_number z' = k /\ sz_uniform z' = sz_uniform (t_stsz tb) /\
             (if sz_uniform z' =? 0 then sz_number z' =? lenN (sz_sizes z') else lenN (sz_sizes z') =? 0) = true /\
             forallb is_u32 (sz_sizes z') = true.
Proof.
  intros H k Hk. destruct (stsz_facts tb H) as [[[U [Nn S]]|[U [Sz S]]] [HN [B [Bu Bs]]]];
    unfold crop_stsz, sizes_of; rewrite S.
  - rewrite U. cbn [N.eqb]. rewrite slice_to_ok by lia. cbn [rbind]. eexists. split; [reflexivity|].
    cbn [sz_uniform sz_sizes sz_number N.eqb]. split; [reflexivity|]. split; [reflexivity|]. split; [reflexivity|].
    split; [rewrite lenN_firstnN by lia; lia|].
    apply forallb_firstnN, Bs.
  - destruct (sz_uniform (t_stsz tb) =? 0) eqn:E; [lia|]. eexists. split; [reflexivity|].
    cbn [sz_uniform sz_sizes sz_number]. rewrite E. split.
    + rewrite firstnN_repeat by lia. reflexivity.
    + rewrite Sz, lenN_nil. repeat split.
Qed.
