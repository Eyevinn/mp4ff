(* C10TermProofs.v — fillTrakOutsAndByteRanges terminates: with fuel = 1 + (number of chunks still to place) the model
   loop never runs out of fuel and never fails on consistent tables, so C10_layout needs no hypothesis that
   the loop returns. *)
From V.lib Require Import Base.
From V.c09 Require Import C09Model C09Spec C09BaseProofs.
From V.c10 Require Import C10Model C10RlProofs C10LayoutProofs.

(* chunks of a track still to be placed *)
Definition remaining (t : trak_state) : N := ts_last_chunk t + 1 - ts_next t.
Definition meas (ts : list trak_state) : N := sumN (map remaining ts).

Lemma fill_loop_total file : forall fuel ts rs first cur,
  Forall (static_ok file) ts -> Forall next_ok ts -> (N.to_nat (meas ts) < fuel)%nat ->
  exists r, fill_loop fuel ts rs first cur = Ok r.
Proof.
  induction fuel as [|fuel IH]; intros ts rs first cur Hst Hnx Hfuel; [lia|].
  destruct (fill_loop_step file fuel ts rs first cur Hst Hnx) as [[_ ->]|[j [t [o [Hj [Hel [_ ->]]]]]]];
    [eexists; reflexivity|].
  pose proof (nthN_In _ _ _ Hj) as Hin.
  assert (Hstt : static_ok file t) by (rewrite Forall_forall in Hst; exact (Hst t Hin)).
  assert (Hnxt : next_ok t) by (rewrite Forall_forall in Hnx; exact (Hnx t Hin)).
  set (c := if first =? 0 then o else cur).
  pose proof (next_advance file c t Hstt Hel) as Hnext. apply IH.
  - apply (Forall_upd_ts _ _ ts j _ t Hst Hj); [auto|exact Hstt].
  - apply (Forall_upd_ts _ _ ts j _ t Hnx Hj); [auto|]. unfold next_ok in *. rewrite Hnext. cbn [advance ts_last_chunk]. lia.
  - pose proof (sum_upd_ts remaining ts j (advance c) t Hj) as Hm. unfold meas, remaining in *.
    rewrite Hnext in Hm. cbn [advance ts_last_chunk] in Hm. unfold next_ok in Hnxt. lia.
Qed.

Lemma meas_initial ts : Forall (fun t => ts_next t = 1 /\ ts_offsets t = []) ts -> meas ts = sumN (map ts_last_chunk ts).
Proof.
  unfold meas. induction ts as [|t r IH]; intros H; [reflexivity|].
  inversion H as [|? ? [Ht _] Hr]; subst. cbn [map sumN]. rewrite (IH Hr). unfold remaining. rewrite Ht. lia.
Qed.

(* the loop returns, with the stated fuel *)
Lemma fill_terminates file ts0 :
  Forall (static_ok file) ts0 -> Forall (fun t => ts_next t = 1 /\ ts_offsets t = []) ts0 ->
  exists ts' ranges first', fill_loop (fill_fuel ts0) ts0 [] 0 0 = Ok (ts', ranges, first').
Proof.
  intros Hst Hinit.
  destruct (fill_loop_total file (fill_fuel ts0) ts0 [] 0 0 Hst) as [[[ts' ranges] first'] Hr].
  - eapply Forall_impl; [|exact Hinit]. intros t [A _]. unfold next_ok. rewrite A. lia.
  - rewrite (meas_initial ts0 Hinit). unfold fill_fuel. lia.
  - exists ts', ranges, first'. exact Hr.
Qed.

(* C10_layout without the hypothesis that the loop returns *)
Lemma layout_total file ts0 :
  Forall (static_ok file) ts0 -> Forall (fun t => ts_next t = 1 /\ ts_offsets t = []) ts0 ->
  4611686018427387904 + pot ts0 < 18446744073709551616 ->
  exists ts' ranges first', fill_loop (fill_fuel ts0) ts0 [] 0 0 = Ok (ts', ranges, first') /\
  map static ts' = map static ts0 /\
  Forall (fun t => static_ok file t /\ ts_next t = ts_last_chunk t + 1 /\ lenN (ts_offsets t) = ts_last_chunk t /\
                   forall c, 1 <= c <= ts_last_chunk t ->
                             exists no, nthN (ts_offsets t) (c - 1) = Some no /\
                                        chunk_placed file (out_bytes file ranges) first' t c no) ts'.
Proof.
  intros Hst Hinit HB. destruct (fill_terminates file ts0 Hst Hinit) as [ts' [ranges [first' Hr]]].
  exists ts', ranges, first'. split; [exact Hr|].
  exact (layout_correct file ts0 (fill_fuel ts0) ts' ranges first' Hst Hinit HB Hr).
Qed.

(* a boolean form of static_ok, so that the hypotheses of the layout theorems can be computed *)
Definition static_okb (file : list N) (t : trak_state) : bool :=
  consistent (ts_tb t) && negb (ts_id t =? 0) && (ts_last_chunk t <=? nchunks (ts_tb t))
  && forallb (fun o => (1 <=? o) && (o <? 4611686018427387904)) (offsets (ts_tb t))
  && forallb (fun c => match S_chunk_offset (ts_tb t) c, S_chunk_count (ts_tb t) c with
                       | Some o, Some cnt =>
                         o + S_total_size (ts_tb t) (S_first_in_chunk (ts_tb t) c) (S_first_in_chunk (ts_tb t) c + cnt - 1)
                         <=? lenN file
                       | _, _ => true
                       end) (seqN 1 (N.to_nat (nchunks (ts_tb t)))).

Lemma In_seqN : forall len s c, s <= c < s + N.of_nat len -> In c (seqN s len).
Proof.
  induction len as [|len IH]; intros s c H; [lia|].
  cbn [seqN]. destruct (N.eq_dec s c) as [->|Hne]; [left; reflexivity|right; apply IH; lia].
Qed.

Lemma static_okb_ok file t : static_okb file t = true -> static_ok file t.
Proof.
  unfold static_okb. intros H.
  apply andb_prop in H. destruct H as [H H5]. apply andb_prop in H. destruct H as [H H4].
  apply andb_prop in H. destruct H as [H H3]. apply andb_prop in H. destruct H as [H1 H2].
  rewrite forallb_forall in H4, H5.
  assert (Hin : forall c o, S_chunk_offset (ts_tb t) c = Some o -> 1 <= c <= nchunks (ts_tb t) /\ In o (offsets (ts_tb t))).
  { intros c o Ho. unfold S_chunk_offset in Ho. destruct (c =? 0) eqn:E; [discriminate|].
    pose proof (nthN_Some_lt _ _ _ Ho). pose proof (nthN_In _ _ _ Ho). unfold nchunks. split; [lia|assumption]. }
  split; [exact H1|]. split; [lia|]. split; [lia|]. split.
  - intros c o Ho. destruct (Hin c o Ho) as [_ Hi]. specialize (H4 o Hi). lia.
  - intros c o cnt Ho Hcnt. destruct (Hin c o Ho) as [Hc _].
    assert (Hs : In c (seqN 1 (N.to_nat (nchunks (ts_tb t))))) by (apply In_seqN; lia).
    specialize (H5 c Hs). rewrite Ho, Hcnt in H5. lia.
Qed.
