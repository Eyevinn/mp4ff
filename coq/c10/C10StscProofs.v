(* C10StscProofs.v — cropStsc: the chunk structure of the result is that of the first k samples. *)
From V.lib Require Import Base.
From V.c09 Require Import C09Model C09Spec C09BaseProofs C09SttsProofs C09StscProofs.
From V.c10 Require Import C10Model C10RlProofs.

(* chunk counts with an explicit end for the last entry *)
Fixpoint cc_upto (es : list stsc_entry) (nxt : N) : list N :=
  match es with
  | [] => []
  | e :: rest =>
    repeat (spc e) (N.to_nat ((match rest with [] => nxt | e' :: _ => first_chunk e' end) - first_chunk e))
           ++ cc_upto rest nxt
  end.

Lemma cc_upto_eq es C : chunk_counts es C = cc_upto es (C + 1).
Proof. induction es as [|e rest IH]; [reflexivity|]. cbn [chunk_counts cc_upto]. rewrite IH. reflexivity. Qed.

Lemma cc_upto_app pre e post nxt :
  cc_upto (pre ++ e :: post) nxt = cc_upto pre (first_chunk e) ++ cc_upto (e :: post) nxt.
Proof.
  induction pre as [|p pre IH]; [reflexivity|].
  cbn [app]. cbn [cc_upto]. fold (cc_upto (pre ++ e :: post) nxt). fold (cc_upto pre (first_chunk e)).
  rewrite IH. rewrite <- app_assoc. f_equal. destruct pre; reflexivity.
Qed.

Lemma nthN_split {A} (l : list A) i x : nthN l i = Some x -> exists pre post, l = pre ++ x :: post /\ lenN pre = i.
Proof.
  revert i; induction l as [|y t IH]; intros i H; [discriminate|]. cbn [nthN] in H. destruct (i =? 0) eqn:E.
  - injection H as ->. exists [], t. split; [reflexivity|]. rewrite lenN_nil. lia.
  - destruct (IH (i - 1) H) as [pre [post [Hl Hn]]]. exists (y :: pre), post. split; [rewrite Hl; reflexivity|].
    rewrite lenN_cons. lia.
Qed.

Lemma nthN_app_0 {A} (pre : list A) x post : nthN (pre ++ x :: post) 0 = Some (hd x pre).
Proof. destruct pre; reflexivity. Qed.

Lemma next_chunk_app pre e post C :
  next_chunk (pre ++ e :: post) C (lenN pre) = match post with [] => C + 1 | e' :: _ => first_chunk e' end.
Proof.
  unfold next_chunk. replace (pre ++ e :: post) with ((pre ++ [e]) ++ post) by (rewrite <- app_assoc; reflexivity).
  replace (lenN pre + 1) with (lenN (pre ++ [e])) by (rewrite lenN_app, lenN_cons, lenN_nil; lia).
  destruct post as [|e' post]; [rewrite nthN_ge_None by (rewrite app_nil_r; lia)|rewrite nthN_app_mid]; reflexivity.
Qed.

Lemma entries_ok_link p x t C : 1 <= spc p -> first_chunk p < first_chunk x ->
  first_sample x = first_sample p + (first_chunk x - first_chunk p) * spc p ->
  entries_ok (x :: t) C = true -> entries_ok (p :: x :: t) C = true.
Proof.
  intros A B D H.
  change (entries_ok (p :: x :: t) C) with
    ((1 <=? spc p) && ((first_chunk p <? first_chunk x)
                       && (first_sample x =? first_sample p + (first_chunk x - first_chunk p) * spc p)
                       && entries_ok (x :: t) C)).
  rewrite H. lia.
Qed.

(* entries_ok only links neighbours: the entries before e stay in order when e and what follows it are replaced
   by a list that starts at the same chunk and sample *)
Lemma entries_ok_replace pre : forall e post C e' tail' C',
  entries_ok (pre ++ e :: post) C = true -> first_chunk e' = first_chunk e -> first_sample e' = first_sample e ->
  entries_ok (e' :: tail') C' = true -> entries_ok (pre ++ e' :: tail') C' = true.
Proof.
  induction pre as [|p pre IH]; intros e post C e' tail' C' Hok Hfc Hfs Hnew; [exact Hnew|].
  cbn [app] in Hok.
  pose proof (IH e post C e' tail' C' (entries_ok_tail _ _ _ Hok) Hfc Hfs Hnew) as Hrest.
  destruct pre as [|p2 pre']; cbn [app] in *; destruct (entries_ok_head _ _ _ _ Hok) as [A [B D]];
    (apply entries_ok_link; [exact A|lia|lia|exact Hrest]).
Qed.

(* number of chunks covered by the entries before e *)
Lemma cc_upto_len pre : forall e post C, entries_ok (pre ++ e :: post) C = true ->
  lenN (cc_upto pre (first_chunk e)) + first_chunk (hd e pre) = first_chunk e.
Proof.
  induction pre as [|p pre IH]; intros e post C Hok; [cbn; lia|].
  cbn [app] in Hok. cbn [cc_upto hd]. rewrite lenN_app, lenN_repeat.
  specialize (IH e post C (entries_ok_tail _ _ _ Hok)).
  destruct pre as [|p2 pre']; cbn [app hd cc_upto] in *; destruct (entries_ok_head _ _ _ _ Hok) as [_ [B _]]; lia.
Qed.

Lemma repeat_snoc {A} (x : A) n : repeat x n ++ [x] = repeat x (S n).
Proof. induction n as [|n IH]; [reflexivity|]. cbn [repeat app]. rewrite IH. reflexivity. Qed.

(* what cropStsc leaves of entry e when the last kept chunk is first_chunk e + q and holds r samples *)
Definition cut_entry (e : stsc_entry) (q r : N) : list stsc_entry :=
  if r =? spc e then [e]
  else if q =? 0 then [mkEntry (first_chunk e) r (first_sample e)]
  else [e; mkEntry (first_chunk e + q) r (first_sample e + q * spc e)].

Lemma cut_entry_spec e q r : 1 <= r <= spc e ->
  exists e' tl, cut_entry e q r = e' :: tl /\ first_chunk e' = first_chunk e /\ first_sample e' = first_sample e /\
    entries_ok (e' :: tl) (first_chunk e + q) = true /\
    cc_upto (e' :: tl) (first_chunk e + q + 1) = repeat (spc e) (N.to_nat q) ++ [r].
Proof.
  intros Hr. unfold cut_entry. destruct (r =? spc e) eqn:Er; [|destruct (q =? 0) eqn:Eq].
  - exists e, []. repeat split.
    + cbn [entries_ok]. lia.
    + cbn [cc_upto]. replace (N.to_nat (first_chunk e + q + 1 - first_chunk e)) with (S (N.to_nat q)) by lia.
      replace r with (spc e) by lia. rewrite app_nil_r, repeat_snoc. reflexivity.
  - eexists _, []. repeat split.
    + cbn [entries_ok spc first_chunk]. lia.
    + cbn [cc_upto spc first_chunk]. replace (N.to_nat (first_chunk e + q + 1 - first_chunk e)) with 1%nat by lia.
      replace (N.to_nat q) with 0%nat by lia. reflexivity.
  - eexists e, [_]. repeat split.
    + apply entries_ok_link; cbn [entries_ok spc first_chunk first_sample]; lia.
    + cbn [cc_upto spc first_chunk]. replace (N.to_nat (first_chunk e + q - first_chunk e)) with (N.to_nat q) by lia.
      replace (N.to_nat (first_chunk e + q + 1 - (first_chunk e + q))) with 1%nat by lia. reflexivity.
Qed.

Lemma lenN_cut_entry e q r : lenN (cut_entry e q r) = if (r =? spc e) || (q =? 0) then 1 else 2.
Proof. unfold cut_entry. destruct (r =? spc e); [|destruct (q =? 0)]; reflexivity. Qed.

(* the entries before e, then what is left of e: the chunk counts are those of the chunks up to first_chunk e + q,
   with r in the last one *)
Lemma cut_entries pre e post C e0 q r :
  entries_ok (pre ++ e :: post) C = true -> nthN (pre ++ e :: post) 0 = Some e0 -> first_chunk e0 = 1 ->
  first_chunk e + q < next_chunk (pre ++ e :: post) C (lenN pre) -> 1 <= r <= spc e ->
  chunk_counts (pre ++ cut_entry e q r) (first_chunk e + q)
    = firstnN (chunk_counts (pre ++ e :: post) C) (first_chunk e + q - 1) ++ [r] /\
  entries_ok (pre ++ cut_entry e q r) (first_chunk e + q) = true /\
  exists e0', nthN (pre ++ cut_entry e q r) 0 = Some e0' /\
              first_chunk e0' = first_chunk e0 /\ first_sample e0' = first_sample e0.
Proof.
  intros Hok H0 Hc0 Hq Hr. destruct (cut_entry_spec e q r Hr) as [e' [tl [-> [Hfc [Hfs [Hok' Hcc]]]]]].
  rewrite nthN_app_0 in H0. injection H0 as <-.
  pose proof (cc_upto_len pre e post C Hok) as Hlen.
  split; [|split].
  - rewrite !cc_upto_eq, !cc_upto_app, Hcc, Hfc, app_assoc. f_equal.
    rewrite next_chunk_app in Hq. cbn [cc_upto].
    rewrite firstnN_app_r by lia.
    replace (first_chunk e + q - 1 - lenN (cc_upto pre (first_chunk e))) with q by lia.
    rewrite firstnN_app_l by (rewrite lenN_repeat; lia). rewrite firstnN_repeat by lia. reflexivity.
  - exact (entries_ok_replace pre e post C e' tl _ Hok Hfc Hfs Hok').
  - rewrite nthN_app_0. eexists. split; [reflexivity|]. destruct pre; cbn [hd]; auto.
Qed.

Lemma set_last_spc_app pre e v : set_last_spc (pre ++ [e]) v = pre ++ [mkEntry (first_chunk e) v (first_sample e)].
Proof.
  induction pre as [|p pre IH]; [reflexivity|]. cbn [app]. rewrite <- IH. destruct pre; reflexivity.
Qed.

Lemma entries_ok_upto pre e post C : entries_ok (pre ++ e :: post) C = true ->
  entries_ok (pre ++ [e]) (first_chunk e) = true.
Proof.
  intros Hok. destruct (entries_ok_at _ _ Hok _ e (nthN_app_mid pre e post)) as [Sp _].
  apply (entries_ok_replace pre e post C e [] _ Hok eq_refl eq_refl). cbn [entries_ok]. lia.
Qed.

(* q whole chunks of s samples and r more: the division counts the last chunk only when it is full *)
Lemma quot_cut q s r : 1 <= r <= s -> (q * s + r) / s = if r =? s then q + 1 else q.
Proof.
  intros H. symmetry. destruct (r =? s) eqn:E; [apply (N.div_unique _ s (q + 1) 0)|apply (N.div_unique _ s q r)]; lia.
Qed.

(* the ids go with the entries: cropped with them when there is one per entry *)
Lemma crop_ids single ids n i : i < n ->
  (if single =? 0 then lenN ids =? n else lenN ids =? 0) = true -> forallb (fun x => negb (x =? 0)) ids = true ->
  exists ids1, (if 0 <? lenN ids then slice_to ids (i + 1) else Ok ids) = Ok ids1 /\
    (if single =? 0 then lenN ids1 =? i + 1 else lenN ids1 =? 0) = true /\
    forallb (fun x => negb (x =? 0)) ids1 = true.
Proof.
  intros Hi Hlen Hnz. destruct (0 <? lenN ids) eqn:E.
  - exists (firstnN ids (i + 1)). destruct (single =? 0); [|lia].
    rewrite slice_to_ok, lenN_firstnN by lia. split; [reflexivity|]. split; [lia|apply forallb_firstnN, Hnz].
  - exists ids. destruct (single =? 0); [lia|]. auto.
Qed.

(* GetSampleDescriptionID at the first chunk of the last entry: never 0, and the common id when there is one *)
Lemma sdid_last_entry pre e single ids C :
  entries_ok (pre ++ [e]) C = true -> lenN (pre ++ [e]) < 4294967296 -> first_chunk e < 4294967296 ->
  (if single =? 0 then lenN ids =? lenN (pre ++ [e]) else lenN ids =? 0) = true ->
  forallb (fun x => negb (x =? 0)) ids = true ->
  exists sdid, stsc_get_sample_description_id (mkStsc (pre ++ [e]) single ids) (first_chunk e) = Ok sdid /\
               sdid <> 0 /\ (single <> 0 -> sdid = single).
Proof.
  intros Hok Hlen Hfc Hids Hnz. unfold stsc_get_sample_description_id. cbn [sc_single sc_entries sc_ids].
  destruct (single =? 0) eqn:Es; cbn [negb]; [|exists single; repeat split; lia].
  destruct (entries_sorted _ _ Hok 0 (lenN pre) _ e ltac:(lia) (nthN_app_0 pre e []) (nthN_app_mid pre e [])) as [_ Hle].
  destruct (find_entry_for_chunk_ok _ C (first_chunk e) _ Hok Hlen (nthN_app_0 pre e []) Hle) as [i [e' [Hf [He' _]]]].
  rewrite u32_small, Hf by exact Hfc. cbn [rbind].
  destruct (nthN_lt_Some ids i) as [x Hx]; [pose proof (nthN_Some_lt _ _ _ He'); lia|].
  exists x. split; [apply idx_Some, Hx|]. split; [|lia].
  rewrite forallb_forall in Hnz. specialize (Hnz x (nthN_In _ _ _ Hx)). lia.
Qed.

(* AddEntry after entry e with an id as GetSampleDescriptionID returns it *)
Lemma add_entry_last pre e single ids fc sp sdid :
  sdid <> 0 -> (single <> 0 -> sdid = single) -> first_chunk e <= fc < 4294967296 ->
  first_sample e + (fc - first_chunk e) * spc e < 4294967296 ->
  stsc_add_entry (mkStsc (pre ++ [e]) single ids) fc sp sdid
  = Ok (mkStsc (pre ++ [e; mkEntry fc sp (first_sample e + (fc - first_chunk e) * spc e)]) single
               (if single =? 0 then ids ++ [sdid] else ids)).
Proof.
  intros Hnz Hs Hfc Hfs. unfold stsc_add_entry. destruct (sdid =? 0) eqn:E0; [lia|].
  cbn [sc_entries sc_single sc_ids]. rewrite rev_unit, sub32_small by lia.
  rewrite (u32_small ((fc - first_chunk e) * spc e)), u32_small by lia. rewrite <- app_assoc. cbn [app].
  destruct (single =? 0) eqn:Es.
  - destruct (sdid =? single) eqn:E; [lia|]. reflexivity.
  - destruct (sdid =? single) eqn:E; [reflexivity|lia].
Qed.

(* what cropStsc returns when sample k lies in entry e, in chunk first_chunk e + q, as number r of that chunk *)
Lemma crop_stsc_eq b C k pre e post q r :
  sc_entries b = pre ++ e :: post -> entries_ok (sc_entries b) C = true -> lenN (sc_entries b) < 4294967296 ->
  (if sc_single b =? 0 then lenN (sc_ids b) =? lenN (sc_entries b) else lenN (sc_ids b) =? 0) = true ->
  forallb (fun x => negb (x =? 0)) (sc_ids b) = true ->
  stsc_find_entry_for_sample (sc_entries b) k 0 = Ok (lenN pre) ->
  first_sample e <= k -> k + 1 < 4294967296 -> first_chunk e + q < 4294967296 ->
  k + 1 - first_sample e = q * spc e + r -> 1 <= r <= spc e ->
  exists ids', crop_stsc b k = Ok (mkStsc (pre ++ cut_entry e q r) (sc_single b) ids') /\
    (if sc_single b =? 0 then lenN ids' =? lenN (pre ++ cut_entry e q r) else lenN ids' =? 0) = true /\
    forallb (fun x => negb (x =? 0)) ids' = true.
Proof.
  intros Hes Hok Hlen Hids Hnz Hf Hk1 Hk2 Hc Hn Hr.
  destruct (crop_ids (sc_single b) (sc_ids b) (lenN (sc_entries b)) (lenN pre) ltac:(rewrite Hes, lenN_app, lenN_cons; lia) Hids Hnz)
    as [ids1 [Hi1 [Hi2 Hi3]]].
  unfold crop_stsc. rewrite Hf. cbn [rbind]. rewrite Hes in *.
  rewrite (idx_Some _ _ _ (nthN_app_mid pre e post)). cbn [rbind].
  rewrite slice_to_ok, firstnN_snoc_split by (rewrite lenN_app, lenN_cons; lia). cbn [rbind].
  rewrite Hi1. cbn [rbind].
  rewrite (sub32_small k), u32_small by lia. replace (k - first_sample e + 1) with (q * spc e + r) by lia.
  unfold div_go. destruct (spc e =? 0) eqn:Es0; [lia|]. cbn [rbind]. rewrite quot_cut by exact Hr.
  rewrite lenN_app, lenN_cut_entry. unfold cut_entry. destruct (r =? spc e) eqn:Er; cbn [orb].
  - (* the cut is at a chunk boundary *)
    rewrite u32_small, sub32_small by lia. replace (q * spc e + r - (q + 1) * spc e) with 0 by lia.
    exists ids1. auto.
  - rewrite u32_small, sub32_small by lia. replace (q * spc e + r - q * spc e) with r by lia.
    destruct (0 <? r) eqn:E1; [|lia]. destruct (q =? 0) eqn:Eq0.
    + (* inside the first chunk of the entry: the entry is shortened *)
      rewrite set_last_spc_app. exists ids1. auto.
    + (* whole chunks stay in the entry, the remainder becomes a new entry *)
      assert (Hl : lenN (pre ++ [e]) = lenN pre + 1) by (rewrite lenN_app, lenN_cons, lenN_nil; lia).
      rewrite lenN_app, lenN_cons in Hlen.
      destruct (sdid_last_entry pre e (sc_single b) ids1 _ (entries_ok_upto _ _ _ _ Hok)) as [sdid [Hsd [Hsd0 Hsd1]]];
        [rewrite Hl; lia|lia|rewrite Hl; exact Hi2|exact Hi3|].
      rewrite Hsd. cbn [rbind]. rewrite (u32_small (first_chunk e + q)) by lia.
      rewrite add_entry_last by (try assumption; lia).
      replace (first_chunk e + q - first_chunk e) with q by lia. eexists. split; [reflexivity|].
      destruct (sc_single b =? 0); [|auto].
      rewrite forallb_app, Hi3, lenN_app, lenN_cons, lenN_nil. cbn [forallb]. split; lia.
Qed.

Lemma stsc_crop_correct tb : consistent tb = true -> forall k, 1 <= k <= nsamples tb ->
  exists b' C', crop_stsc (t_stsc tb) k = Ok b' /\ S_chunk_of tb k = Some C' /\ 1 <= C' <= nchunks tb /\
    chunk_counts (sc_entries b') C' = firstnN (counts_of tb) (C' - 1) ++ [k + 1 - S_first_in_chunk tb C'] /\
    1 <= k + 1 - S_first_in_chunk tb C' /\ S_first_in_chunk tb C' <= k /\
    (exists cnt, nthN (counts_of tb) (C' - 1) = Some cnt /\ k + 1 - S_first_in_chunk tb C' <= cnt) /\
    entries_ok (sc_entries b') C' = true /\
    (exists e0', nthN (sc_entries b') 0 = Some e0' /\ first_chunk e0' = 1 /\ first_sample e0' = 1) /\
    (if sc_single b' =? 0 then lenN (sc_ids b') =? lenN (sc_entries b') else lenN (sc_ids b') =? 0) = true /\
    forallb (fun x => negb (x =? 0)) (sc_ids b') = true /\ sc_single b' = sc_single (t_stsc tb).
Proof.
  intros H k Hk.
  destruct (stsc_facts tb H) as [e0 [H0 [Hc0 [Hs0 [Hok [_ [HN [HC [_ Hel]]]]]]]]].
  destruct (consistent_parts tb H) as [_ [_ [_ [Hsc _]]]]. unfold stsc_ok in Hsc.
  apply andb_prop in Hsc. destruct Hsc as [Hsc _]. apply andb_prop in Hsc. destruct Hsc as [Hsc Hidnz].
  apply andb_prop in Hsc. destruct Hsc as [_ Hids].
  destruct (find_entry_for_sample_ok _ _ k 0 e0 Hok Hel H0 ltac:(lia)) as [i [e [Hf [_ [He [Hke Hnx]]]]]].
  (* sample k lies in chunk C' = first_chunk e + q of entry e, as number r of that chunk *)
  destruct (sample_in_entry tb H i e k He ltac:(lia) Hnx _ eq_refl) as [Hq [Hch [Hfic Hb]]].
  set (q := (k - first_sample e) / spc e) in *. clearbody q.
  destruct (chunk_in_entry tb H i e (first_chunk e + q) He ltac:(lia)) as [HcR [_ [A _]]].
  set (C' := first_chunk e + q) in *. set (r := k + 1 - S_first_in_chunk tb C').
  destruct (nthN_split _ _ _ He) as [pre [post [Hes <-]]].
  destruct (crop_stsc_eq (t_stsc tb) (nchunks tb) k pre e post q r Hes Hok Hel Hids Hidnz Hf)
    as [ids' [Hcrop [Hidlen Hidnz']]]; [lia..|].
  unfold counts_of in *. rewrite Hes in *.
  destruct (cut_entries pre e post (nchunks tb) e0 q r Hok H0 Hc0 Hq ltac:(lia)) as [Hcc [Hok' [e0' [Hhd [Hhc Hhs]]]]].
  exists (mkStsc (pre ++ cut_entry e q r) (sc_single (t_stsc tb)) ids'), C'. cbn [sc_entries sc_single sc_ids].
  split; [exact Hcrop|]. split; [exact Hch|]. split; [exact HcR|]. split; [exact Hcc|].
  split; [lia|]. split; [lia|]. split; [exists (spc e); split; [exact A|lia]|]. split; [exact Hok'|].
  split; [exists e0'; split; [exact Hhd|lia]|]. auto.
Qed.

(* per-sample chunk numbers of a truncated count list *)
Lemma sample_chunks_app l1 l2 c0 : sample_chunks (l1 ++ l2) c0 = sample_chunks l1 c0 ++ sample_chunks l2 (c0 + lenN l1).
Proof.
  revert c0; induction l1 as [|x t IH]; intros c0.
  - cbn [app sample_chunks]. rewrite lenN_nil, N.add_0_r. reflexivity.
  - cbn [app sample_chunks]. rewrite IH, <- app_assoc, lenN_cons. do 3 f_equal. lia.
Qed.

Lemma sample_chunks_prefix A x B r c0 : r <= x ->
  sample_chunks (A ++ [r]) c0 = firstnN (sample_chunks (A ++ x :: B) c0) (sumN A + r).
Proof.
  intros Hr. rewrite !sample_chunks_app. cbn [sample_chunks]. rewrite app_nil_r.
  rewrite firstnN_app_r by (rewrite lenN_sample_chunks; lia). rewrite lenN_sample_chunks. f_equal.
  replace (sumN A + r - sumN A) with r by lia.
  rewrite firstnN_app_l by (rewrite lenN_repeat; lia). rewrite firstnN_repeat by lia. reflexivity.
Qed.

Lemma firstnN_nth_split {A} (l : list A) k x : nthN l k = Some x ->
  exists B, l = firstnN l k ++ x :: B.
Proof.
  intros H. destruct (nthN_split l k x H) as [pre [post [Hl Hn]]]. exists post.
  rewrite Hl at 2. rewrite Hl, <- Hn. rewrite firstnN_app_l by lia. rewrite firstnN_all by lia. reflexivity.
Qed.

(* the chunk number of every kept sample is unchanged *)
Lemma stsc_crop_sample_chunks tb : consistent tb = true -> forall k, 1 <= k <= nsamples tb ->
  exists b' C', crop_stsc (t_stsc tb) k = Ok b' /\ S_chunk_of tb k = Some C' /\
    sample_chunks (chunk_counts (sc_entries b') C') 1 = firstnN (sample_chunks (counts_of tb) 1) k /\
    sumN (chunk_counts (sc_entries b') C') = k.
Proof.
  intros H k Hk.
  destruct (stsc_crop_correct tb H k Hk) as [b' [C' [Hc [Hch [HcR [Hcc [Hr1 [Hfk [[cnt [Hcnt Hrc]] _]]]]]]]]].
  exists b', C'. split; [exact Hc|]. split; [exact Hch|].
  destruct (firstnN_nth_split _ _ _ Hcnt) as [B HB].
  assert (Hps : sumN (firstnN (counts_of tb) (C' - 1)) + 1 = S_first_in_chunk tb C').
  { unfold S_first_in_chunk, firstnN. lia. }
  rewrite Hcc. split.
  - rewrite HB at 2. rewrite (sample_chunks_prefix _ cnt B _ 1 Hrc). f_equal. lia.
  - rewrite sumN_app. cbn [sumN]. lia.
Qed.
