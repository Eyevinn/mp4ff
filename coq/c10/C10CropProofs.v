(* C10CropProofs.v — the end-to-end statement about crop_to_time itself (the model function that the `virt`
   correspondence ties to cropMP4/cropToTime of cmd/mp4ff-crop). *)
From V.lib Require Import Base.
From V.c09 Require Import C09Model C09Spec C09StscProofs.
From V.c10 Require Import C10Model C10LayoutProofs C10E2EProofs
  C10C09Proofs C10EndProofs.

Lemma trak_ends_from_init : forall traks seen et ets ts0, trak_ends_from seen traks et ets = Ok ts0 ->
  Forall (fun t => ts_next t = 1 /\ ts_offsets t = []) ts0 /\ map ts_tb ts0 = map ti_tb traks /\ map ts_id ts0 = map ti_id traks.
Proof.
  induction traks as [|t r IH]; intros seen et ets ts0 H; cbn [trak_ends_from] in H.
  - injection H as <-. repeat split; constructor.
  - destruct (existsb (N.eqb (ti_id t)) seen); [discriminate|].
    destruct (find_trak_end (ti_tb t) (ti_ts t) et ets) as [e| | |]; try discriminate. cbn [rbind] in H.
    destruct (trak_ends_from (ti_id t :: seen) r et ets) as [r'| | |] eqn:Er; try discriminate. cbn [rbind] in H. injection H as <-.
    destruct (IH _ et ets r' Er) as [A [B C]]. split; [constructor; [split; reflexivity|exact A]|].
    cbn [map ts_tb ts_id]. rewrite B, C. split; reflexivity.
Qed.

Lemma trak_ends_init : forall traks et ets ts0, trak_ends traks et ets = Ok ts0 ->
  Forall (fun t => ts_next t = 1 /\ ts_offsets t = []) ts0 /\ map ts_tb ts0 = map ti_tb traks /\ map ts_id ts0 = map ti_id traks.
Proof. intros traks. exact (trak_ends_from_init traks []). Qed.

(* findTrakEnds succeeded: the track IDs are pairwise distinct (repaired text) *)
Lemma trak_ends_from_nodup : forall traks seen et ets ts0, trak_ends_from seen traks et ets = Ok ts0 ->
  NoDup (map ti_id traks) /\ forall x, In x (map ti_id traks) -> ~ In x seen.
Proof.
  induction traks as [|t r IH]; intros seen et ets ts0 H; cbn [trak_ends_from] in H.
  - split; [constructor|intros x []].
  - destruct (existsb (N.eqb (ti_id t)) seen) eqn:Ex; [discriminate|].
    destruct (find_trak_end (ti_tb t) (ti_ts t) et ets) as [e| | |]; try discriminate. cbn [rbind] in H.
    destruct (trak_ends_from (ti_id t :: seen) r et ets) as [r'| | |] eqn:Er; try discriminate.
    destruct (IH _ et ets r' Er) as [A B].
    assert (Hns : ~ In (ti_id t) seen).
    { intros Hin. assert (existsb (N.eqb (ti_id t)) seen = true); [|congruence].
      apply existsb_exists. exists (ti_id t). split; [exact Hin|apply N.eqb_refl]. }
    cbn [map]. split.
    + constructor; [|exact A]. intros Hin. apply (B _ Hin). left. reflexivity.
    + intros x [<-|Hx]; [exact Hns|]. intros Hin. apply (B _ Hx). right. exact Hin.
Qed.

Lemma trak_ends_distinct traks et ets ts0 : trak_ends traks et ets = Ok ts0 -> NoDup (map ti_id traks).
Proof. intros H. exact (proj1 (trak_ends_from_nodup traks [] et ets ts0 H)). Qed.

(* what holds of one track of the output *)
Definition track_out (file outf : list N) (S h : N) (payload_len : N) (st : N * tables * N * N) (tb2 : tables) : Prop :=
  let '(_, tb, k, C) := st in
  consistent tb2 = true /\ nsamples tb2 = k /\ nchunks tb2 = C /\ prefix_lists tb tb2 k /\
  (forall c, 1 <= c <= C -> exists o, S_chunk_offset tb2 c = Some o /\ S + h <= o /\
                                      o + csize tb k c <= S + h + payload_len) /\
  (forall n, 1 <= n <= k ->
     exists off off' sz, S_offset_of tb n = Some off /\ S_size tb n = Some sz /\
                         S_offset_of tb2 n = Some off' /\ S_size tb2 n = Some sz /\
                         trak_get_ranges tb2 n n = Ok [mkRange off' sz] /\
                         sublist outf off' sz = sublist file off sz).

Lemma Forall2_compose {A B C} (R1 : A -> B -> Prop) (R2 : B -> C -> Prop) (P : A -> Prop) (Q : A -> C -> Prop) :
  (forall a b c, P a -> R1 a b -> R2 b c -> Q a c) ->
  forall la lb lc, Forall P la -> Forall2 R1 la lb -> Forall2 R2 lb lc -> Forall2 Q la lc.
Proof.
  intros HQ la lb lc HP H1. revert lc HP. induction H1 as [|a b la lb Hab H1 IH]; intros lc HP H2.
  - inversion H2; subst. constructor.
  - inversion H2 as [|? c ? lc' Hbc H2']; subst. inversion HP as [|? ? Pa HP']; subst.
    constructor; [eapply HQ; eauto|apply IH; assumption].
Qed.

Lemma Forall2_len {A B} (R : A -> B -> Prop) la lb : Forall2 R la lb -> length la = length lb.
Proof. induction 1; [reflexivity|]. cbn [length]. congruence. Qed.

Lemma Forall2_map_l {A B C} (f : A -> B) (Q : B -> C -> Prop) : forall la lc,
  Forall2 (fun a c => Q (f a) c) la lc <-> Forall2 Q (map f la) lc.
Proof.
  induction la as [|a la IH]; intros lc; split; intros H; inversion H; subst; cbn [map]; constructor;
    try assumption; apply IH; assumption.
Qed.

Lemma track_output file out first' S h t pre hdr tb' tb2 :
  laid_out file out first' t -> lenN pre = S -> lenN hdr = h ->
  S + h + lenN out + sumN (sizes (ts_tb t)) < 18446744073709551616 ->
  crop_tables (ts_tb t) (ts_last_sample t) (ts_offsets t) = Ok tb' ->
  shift_track (shift_delta h S first') tb' = Ok tb2 ->
  track_out file (pre ++ hdr ++ out) S h (lenN out) (static t) tb2.
Proof.
  intros Hlo HS Hh Hb Hcrop Hshift.
  destruct (track_end_to_end file out first' S h t pre hdr Hlo HS Hh ltac:(lia) tb' tb2 Hcrop Hshift) as [_ [A [B [C _]]]].
  destruct (track_readable file out first' S h t pre hdr tb' tb2 Hlo HS Hh Hb Hcrop Hshift) as [E F].
  pose proof (track_prefix file out first' S h t tb' tb2 Hlo ltac:(lia) Hcrop Hshift) as G.
  unfold track_out, static. repeat (split; [assumption|]). exact F.
Qed.

Lemma crop_to_time_correct file traks et ets S pre hdr ts0 shifted ranges ks :
  trak_ends traks et ets = Ok ts0 -> Forall (static_ok file) ts0 -> Forall cut_ok ts0 ->
  4611686018427387904 + 2 * pot ts0 < 18446744073709551616 ->
  lenN pre = S -> lenN hdr = mdat_out_hdr -> S + mdat_out_hdr + 2 * pot ts0 < 18446744073709551616 ->
  crop_to_time traks et ets S = Ok (shifted, ranges, ks) ->
  ks = map ts_last_sample ts0 /\ Forall (range_in file) ranges /\ lenN (out_bytes file ranges) <= pot ts0 /\
  Forall2 (track_out file (pre ++ hdr ++ out_bytes file ranges) S mdat_out_hdr (lenN (out_bytes file ranges)))
          (map static ts0) shifted.
Proof.
  intros Hends Hst Hcut HB HS Hh HB2 Hrun.
  destruct (trak_ends_init traks et ets ts0 Hends) as [Hinit _].
  destruct (tracks_laid_out file ts0 Hst Hinit Hcut HB) as [ts' [ranges' [first' [Hfill [Hstat [Hrin [Hlen Hall]]]]]]].
  unfold crop_to_time in Hrun. rewrite Hends in Hrun. cbn [rbind] in Hrun. rewrite Hfill in Hrun. cbn [rbind] in Hrun.
  destruct (crop_all ts') as [cropped| | |] eqn:Ec; try discriminate. cbn [rbind] in Hrun.
  destruct (update_chunk_offsets S first' cropped) as [sh| | |] eqn:Eu; try discriminate. cbn [rbind] in Hrun.
  injection Hrun as <- <- <-.
  split.
  { apply (f_equal (map (fun x : N * tables * N * N => snd (fst x)))) in Hstat. rewrite !map_map in Hstat. exact Hstat. }
  split; [exact Hrin|]. split; [exact Hlen|]. rewrite <- Hstat. apply (proj1 (Forall2_map_l static _ ts' sh)).
  eapply Forall2_compose; [|exact Hall|exact (crop_all_Forall2 ts' cropped Ec)|exact (shift_tracks_Forall2 _ cropped sh Eu)].
  intros t tb' tb2 [Hlo Hsz] H1 H2. apply (track_output file _ first' S mdat_out_hdr t pre hdr tb' tb2); try assumption. lia.
Qed.

(* from the input tracks: findTrakEnds gives states that satisfy cut_ok, k = the number of samples starting
   before the (rescaled) end time *)
Definition track_tet (t : trak_in) (et ets : N) : res N :=
  if negb (ti_ts t =? u32 ets) then div_go (u64 (et * ti_ts t)) ets else Ok et.
Definition k_of (tb : tables) (tet : N) : N := lenN (filter (fun s => s <? tet) (starts (durs tb) 0)).

Definition trak_pre (file : list N) (et ets : N) (t : trak_in) : Prop :=
  static_ok file (mkTS (ti_id t) (ti_tb t) 0 0 1 []) /\
  deltas_positive (t_stts_count (ti_tb t)) (t_stts_delta (ti_tb t)) = true /\
  exists tet, track_tet t et ets = Ok tet /\ tet < sumN (durs (ti_tb t)) /\ 1 <= k_of (ti_tb t) tet.

Definition state_of (et ets : N) (t : trak_in) (s : trak_state) : Prop :=
  ts_id s = ti_id t /\ ts_tb s = ti_tb t /\
  exists tet, track_tet t et ets = Ok tet /\ ts_last_sample s = k_of (ti_tb t) tet.

Lemma trak_ends_from_ok file : forall traks seen et ets ts0, Forall (trak_pre file et ets) traks ->
  trak_ends_from seen traks et ets = Ok ts0 ->
  Forall (static_ok file) ts0 /\ Forall cut_ok ts0 /\ Forall2 (state_of et ets) traks ts0.
Proof.
  induction traks as [|t r IH]; intros seen et ets ts0 Hpre H; cbn [trak_ends_from] in H.
  - injection H as <-. repeat split; constructor.
  - destruct (existsb (N.eqb (ti_id t)) seen); [discriminate|].
    inversion Hpre as [|? ? [Hst [Hdp [tet [Htet [Hlt Hk1]]]]] Hpre']; subst.
    pose proof Hst as [Hc [Hid [_ [Hoff Hfile]]]]. cbn [ts_tb ts_id] in *.
    destruct (trak_end_correct (ti_tb t) Hc Hdp (ti_ts t) et ets tet Htet Hlt Hk1)
      as [k [td [d [c [cnt [Hk [HkN [_ [_ [Hch [_ Hfe]]]]]]]]]]].
    rewrite Hfe in H. cbn [rbind fst snd ch_nr] in H.
    destruct (trak_ends_from (ti_id t :: seen) r et ets) as [r'| | |] eqn:Er; try discriminate. cbn [rbind] in H. injection H as <-.
    destruct (IH _ et ets r' Hpre' Er) as [A [B C]].
    assert (Hk1' : 1 <= k) by (rewrite Hk; exact Hk1).
    destruct (chunk_of_sample_correct (ti_tb t) Hc k ltac:(lia)) as [c' [Hc' [Hcr _]]].
    rewrite Hch in Hc'. injection Hc' as <-.
    split; [|split].
    + constructor; [|exact A]. unfold static_ok. cbn [ts_tb ts_id ts_last_chunk].
      split; [exact Hc|]. split; [exact Hid|]. split; [lia|]. split; [exact Hoff|exact Hfile].
    + constructor; [|exact B]. unfold cut_ok. cbn [ts_tb ts_last_sample ts_last_chunk]. split; [lia|exact Hch].
    + constructor; [|exact C]. unfold state_of. cbn [ts_id ts_tb ts_last_sample]. split; [reflexivity|]. split; [reflexivity|].
      exists tet. split; [exact Htet|exact Hk].
Qed.

Lemma trak_ends_ok file : forall traks et ets ts0, Forall (trak_pre file et ets) traks -> trak_ends traks et ets = Ok ts0 ->
  Forall (static_ok file) ts0 /\ Forall cut_ok ts0 /\ Forall2 (state_of et ets) traks ts0.
Proof. intros traks. exact (trak_ends_from_ok file traks []). Qed.

Definition total_bytes (traks : list trak_in) : N := sumN (map (fun t => sumN (sizes (ti_tb t))) traks).

(* the composed statement about crop_to_time on the input tracks *)
Lemma crop_to_time_full_le file traks et ets S pre hdr shifted ranges ks :
  Forall (trak_pre file et ets) traks ->
  4611686018427387904 + 2 * total_bytes traks < 18446744073709551616 ->
  lenN pre = S -> lenN hdr = mdat_out_hdr -> S + mdat_out_hdr + 2 * total_bytes traks < 18446744073709551616 ->
  crop_to_time traks et ets S = Ok (shifted, ranges, ks) ->
  lenN (out_bytes file ranges) <= total_bytes traks /\ Forall (range_in file) ranges /\
  exists ts0, Forall2 (state_of et ets) traks ts0 /\ Forall cut_ok ts0 /\ ks = map ts_last_sample ts0 /\
    Forall2 (track_out file (pre ++ hdr ++ out_bytes file ranges) S mdat_out_hdr (lenN (out_bytes file ranges)))
            (map static ts0) shifted.
Proof.
  intros Hpre HB HS Hh HB2 Hrun.
  destruct (trak_ends traks et ets) as [ts0| | |] eqn:Ends;
    try (unfold crop_to_time in Hrun; rewrite Ends in Hrun; discriminate).
  destruct (trak_ends_ok file traks et ets ts0 Hpre Ends) as [Hst [Hcut Hstate]].
  destruct (trak_ends_init traks et ets ts0 Ends) as [Hinit [Htb _]].
  assert (Hpot : pot ts0 = total_bytes traks).
  { rewrite (pot_initial ts0 Hinit). unfold total_bytes. rewrite <- (map_map ts_tb (fun tb => sumN (sizes tb))), Htb, map_map. reflexivity. }
  rewrite <- Hpot in *.
  destruct (crop_to_time_correct file traks et ets S pre hdr ts0 shifted ranges ks Ends Hst Hcut HB HS Hh HB2 Hrun)
    as [A [B [L C]]].
  split; [exact L|]. split; [exact B|]. exists ts0. repeat split; assumption.
Qed.

Lemma crop_to_time_full file traks et ets S pre hdr shifted ranges ks :
  Forall (trak_pre file et ets) traks ->
  4611686018427387904 + 2 * total_bytes traks < 18446744073709551616 ->
  lenN pre = S -> lenN hdr = mdat_out_hdr -> S + mdat_out_hdr + 2 * total_bytes traks < 18446744073709551616 ->
  crop_to_time traks et ets S = Ok (shifted, ranges, ks) ->
  Forall (range_in file) ranges /\
  exists ts0, Forall2 (state_of et ets) traks ts0 /\ Forall cut_ok ts0 /\ ks = map ts_last_sample ts0 /\
    Forall2 (track_out file (pre ++ hdr ++ out_bytes file ranges) S mdat_out_hdr (lenN (out_bytes file ranges)))
            (map static ts0) shifted.
Proof. intros Hpre HB HS Hh HB2 Hrun. exact (proj2 (crop_to_time_full_le _ _ _ _ _ _ _ _ _ _ Hpre HB HS Hh HB2 Hrun)). Qed.
