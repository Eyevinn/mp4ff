(* C10C09Proofs.v — the shifted tables of the output are consistent, so the C09 theorems apply to the OUTPUT file:
   TrakBox.GetRangesForSampleInterval (C09's trak_get_ranges) on the output tables returns, for every kept sample, the
   one byte range that holds the input's bytes of that sample. *)
From V.lib Require Import Base.
From V.c09 Require Import C09Model C09Spec C09SttsProofs C09StscProofs C09TrakProofs.
From V.c10 Require Import C10Model C10LayoutProofs C10E2EProofs.

Lemma moved_consistent f tb tb2 : consistent tb = true -> moved f tb tb2 ->
  (forall o, In o (offsets tb) -> f o + sumN (sizes tb) < 18446744073709551616) -> consistent tb2 = true.
Proof.
  intros Hcons M Hb. destruct (moved_views f tb tb2 M) as [Hsz [_ [HN [HC Hcn]]]].
  destruct M as [Ho [Hz [Hs [Hc [Hd [Hct [Hss [Hsd Hk]]]]]]]].
  destruct (consistent_parts tb Hcons) as [P1 [P2 [P3 [P4 [P5 [P6 [P7 P8]]]]]]].
  assert (G2 : stts_ok tb2 = true) by (unfold stts_ok in *; rewrite Hc, Hd, HN; exact P2).
  assert (G3 : ctts_ok tb2 = true) by (unfold ctts_ok in *; rewrite Hct, HN; exact P3).
  assert (G4 : stsc_ok tb2 = true) by (unfold stsc_ok in *; rewrite Hs, HC, Hcn, HN; exact P4).
  assert (G5 : stsz_ok tb2 = true) by (unfold stsz_ok in *; rewrite Hz; exact P5).
  assert (G7 : stss_ok tb2 = true) by (unfold stss_ok in *; rewrite Hss, HN; exact P7).
  assert (G8 : sdtp_ok tb2 = true) by (unfold sdtp_ok in *; rewrite Hsd, HN; exact P8).
  assert (G6 : offsets_ok tb2 = true).
  { unfold offsets_ok in *. apply andb_prop in P6. destruct P6 as [P6 P6c]. rewrite HC, Hsz, Ho, P6c.
    assert (Hfb : forallb (fun o => o + sumN (sizes tb) <? 18446744073709551616) (map f (offsets tb)) = true).
    { apply forallb_forall. intros x Hx. apply in_map_iff in Hx. destruct Hx as [o [<- Hin]]. specialize (Hb o Hin). lia. }
    rewrite Hfb. destruct (t_stco tb2) as [l|].
    - rewrite Hk. reflexivity.
    - destruct (t_co64 tb2); [reflexivity|contradiction]. }
  unfold consistent. rewrite HN, P1, G2, G3, G4, G5, G6, G7, G8. reflexivity.
Qed.

(* a pure C09 fact: the ranges of the one-sample interval [n,n] *)
Lemma single_sample_range tb n : consistent tb = true -> 1 <= n <= nsamples tb ->
  exists off sz, S_offset_of tb n = Some off /\ S_size tb n = Some sz /\ trak_get_ranges tb n n = Ok [mkRange off sz].
Proof.
  intros H Hn.
  destruct (ranges_correct tb H n n ltac:(lia) ltac:(lia) ltac:(lia)) as [rl [Hrl Hsr]].
  destruct (chunk_of_sample_correct tb H n Hn) as [c [Hc [Hcr [Hfn [[cnt [Hcnt Hlast]] _]]]]].
  destruct (get_offset_correct tb H c Hcr) as [o [Ho _]].
  destruct (size_correct tb H n Hn) as [sz [Hsz _]].
  assert (Hone : S_total_size tb n n = sz).
  { unfold S_total_size, sublist. unfold S_size in Hsz. destruct (n =? 0) eqn:E0; [lia|].
    replace (n + 1 - n) with 1 by lia.
    rewrite (skipn_nthN _ _ _ Hsz). change (N.to_nat 1) with 1%nat. cbn [firstn sumN]. lia. }
  exists (o + S_total_size tb (S_first_in_chunk tb c) (n - 1)), sz.
  split; [unfold S_offset_of; rewrite Hc, Ho; reflexivity|]. split; [exact Hsz|].
  unfold S_ranges in Hsr. rewrite Hc in Hsr. replace (N.to_nat (c + 1 - c)) with 1%nat in Hsr by lia.
  cbn [seqN map] in Hsr. unfold S_range in Hsr. rewrite Ho, Hcnt in Hsr.
  rewrite N.max_l in Hsr by lia. rewrite N.min_l in Hsr by lia. rewrite Hone in Hsr.
  injection Hsr as Hsr. destruct rl as [|r [|r2 rest]]; cbn [map] in Hsr; try discriminate.
  injection Hsr as <-. exact Hrl.
Qed.

(* one track: the output tables are consistent and GetRangesForSampleInterval(n, n) on them yields the range holding the
   input's bytes of sample n *)
Lemma track_readable file out first' S h t pre hdr tb' tb2 :
  laid_out file out first' t -> lenN pre = S -> lenN hdr = h ->
  S + h + lenN out + sumN (sizes (ts_tb t)) < 18446744073709551616 ->
  crop_tables (ts_tb t) (ts_last_sample t) (ts_offsets t) = Ok tb' ->
  shift_track (shift_delta h S first') tb' = Ok tb2 ->
  consistent tb2 = true /\
  (forall n, 1 <= n <= ts_last_sample t ->
     exists off off' sz, S_offset_of (ts_tb t) n = Some off /\ S_size (ts_tb t) n = Some sz /\
                         S_offset_of tb2 n = Some off' /\ S_size tb2 n = Some sz /\
                         trak_get_ranges tb2 n n = Ok [mkRange off' sz] /\
                         sublist (pre ++ hdr ++ out) off' sz = sublist file off sz).
Proof.
  intros Hlo HS Hh Hb2 Hcrop Hshift.
  destruct (track_end_to_end file out first' S h t pre hdr Hlo HS Hh ltac:(lia) tb' tb2 Hcrop Hshift)
    as [_ [HN2 [_ [_ Hsamples]]]].
  destruct (track_tables file out first' S h t tb' tb2 Hlo ltac:(lia) Hcrop Hshift)
    as [Hc' [_ [Hoffs [[_ [Hsizes _]] [Hmv Hno]]]]].
  assert (Hcons2 : consistent tb2 = true).
  { apply (moved_consistent _ tb' tb2 Hc' Hmv). intros o Ho. rewrite Hoffs in Ho. destruct (Hno o Ho).
    unfold new_off. rewrite Hsizes.
    pose proof (sumN_firstn_le (sizes (ts_tb t)) (N.to_nat (ts_last_sample t))). unfold firstnN. lia. }
  split; [exact Hcons2|]. intros n Hn.
  destruct (Hsamples n Hn) as [off [off' [sz [A [B [C [D E]]]]]]].
  destruct (single_sample_range tb2 n Hcons2 ltac:(lia)) as [off2 [sz2 [C2 [D2 R]]]].
  rewrite C in C2. injection C2 as <-. rewrite D in D2. injection D2 as <-.
  exists off, off', sz. repeat split; assumption.
Qed.

(* all tracks *)
Lemma output_readable file ts0 S h pre hdr :
  Forall (static_ok file) ts0 -> Forall (fun t => ts_next t = 1 /\ ts_offsets t = []) ts0 -> Forall cut_ok ts0 ->
  4611686018427387904 + 2 * pot ts0 < 18446744073709551616 ->
  lenN pre = S -> lenN hdr = h -> S + h + 2 * pot ts0 < 18446744073709551616 ->
  exists ts' ranges first', fill_loop (fill_fuel ts0) ts0 [] 0 0 = Ok (ts', ranges, first') /\
    map static ts' = map static ts0 /\
    Forall (fun t => forall tb' tb2, crop_tables (ts_tb t) (ts_last_sample t) (ts_offsets t) = Ok tb' ->
      shift_track (shift_delta h S first') tb' = Ok tb2 ->
      consistent tb2 = true /\
      (forall n, 1 <= n <= ts_last_sample t ->
         exists off off' sz, S_offset_of (ts_tb t) n = Some off /\ S_size (ts_tb t) n = Some sz /\
                             trak_get_ranges tb2 n n = Ok [mkRange off' sz] /\
                             sublist (pre ++ hdr ++ out_bytes file ranges) off' sz = sublist file off sz)) ts'.
Proof.
  intros Hst Hinit Hcut HB HS Hh HB2.
  destruct (tracks_laid_out file ts0 Hst Hinit Hcut HB) as [ts' [ranges [first' [Hrun [Hstat [_ [Hlen Hall]]]]]]].
  exists ts', ranges, first'. repeat (split; [assumption|]).
  revert Hall. apply Forall_impl. intros t [Hlo Hsz] tb' tb2 Hcrop Hshift.
  destruct (track_readable file _ first' S h t pre hdr tb' tb2 Hlo HS Hh ltac:(lia) Hcrop Hshift) as [Hc2 Hn].
  split; [exact Hc2|]. intros n Hr. destruct (Hn n Hr) as [off [off' [sz [A [B [_ [_ [C D]]]]]]]]. exists off, off', sz. auto.
Qed.
