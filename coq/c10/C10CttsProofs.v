(* C10CttsProofs.v — cropSdtp, cropStss, cropCtts. *)
From V.lib Require Import Base.
From V.c09 Require Import C09Model C09Spec C09BaseProofs C09SttsProofs C09CttsProofs.
From V.c10 Require Import C10Model C10RlProofs.

Lemma sdtp_crop_correct (l : list N) k : k <= lenN l -> crop_sdtp l k = firstnN l k.
Proof.
  intros H. unfold crop_sdtp. destruct (k <? lenN l) eqn:E; [reflexivity|].
  symmetry. apply firstnN_all. lia.
Qed.

Lemma filter_le_sorted_nil l k x : sorted_le (x :: l) = true -> k < x -> filter (fun y => y <=? k) (x :: l) = [].
Proof.
  revert x; induction l as [|y t IH]; intros x Hs Hk; cbn [filter].
  - destruct (x <=? k) eqn:E; [lia|reflexivity].
  - destruct (x <=? k) eqn:E; [lia|].
    assert (x <= y) by (cbn [sorted_le] in Hs; apply andb_prop in Hs; lia).
    apply (IH y (sorted_le_tail _ _ Hs)). lia.
Qed.

Lemma stss_crop_correct l k : sorted_le l = true -> crop_stss l k = filter (fun y => y <=? k) l.
Proof.
  induction l as [|x t IH]; intros Hs; [reflexivity|]. cbn [crop_stss].
  destruct (k <? x) eqn:E.
  - symmetry. apply filter_le_sorted_nil; [exact Hs|lia].
  - cbn [filter]. destruct (x <=? k) eqn:E2; [|lia]. f_equal. apply IH. exact (sorted_le_tail _ _ Hs).
Qed.

Lemma sorted_lt_tail a t : sorted_lt (a :: t) = true -> sorted_lt t = true.
Proof. cbn [sorted_lt]. destruct t as [|b t']; [reflexivity|]. intros H. apply andb_prop in H. tauto. Qed.

Lemma stss_crop_ok l n k : sorted_lt l = true -> forallb (fun x => (1 <=? x) && (x <=? n)) l = true -> k <= n ->
  sorted_lt (crop_stss l k) = true /\ forallb (fun x => (1 <=? x) && (x <=? k)) (crop_stss l k) = true.
Proof.
  induction l as [|x t IH]; intros Hs Hr Hk; [split; reflexivity|]. cbn [crop_stss].
  destruct (k <? x) eqn:E; [split; reflexivity|].
  cbn [forallb] in Hr. apply andb_prop in Hr. destruct Hr as [Hx Hr].
  destruct (IH (sorted_lt_tail _ _ Hs) Hr Hk) as [A B]. split.
  - cbn [sorted_lt]. destruct t as [|y t']; [reflexivity|]. cbn [crop_stss] in *.
    destruct (k <? y) eqn:Ey; [reflexivity|].
    assert (x < y) by (cbn [sorted_lt] in Hs; apply andb_prop in Hs; lia).
    apply andb_true_intro. split; [lia|exact A].
  - cbn [forallb]. rewrite B. apply andb_true_intro. split; [|reflexivity]. lia.
Qed.

Lemma last_cons_ne_local {A} (a : A) l d : l <> [] -> last (a :: l) d = last l d.
Proof. destruct l; [congruence|reflexivity]. Qed.

Lemma last_app_ne_local {A} (l1 l2 : list A) d : l2 <> [] -> last (l1 ++ l2) d = last l2 d.
Proof.
  intros H. induction l1 as [|a t IH]; [reflexivity|].
  cbn [app]. destruct (t ++ l2) as [|a0 l] eqn:E.
  - destruct t; [cbn in E; congruence|discriminate].
  - cbn [last]. exact IH.
Qed.

Lemma diffs_cons2 a b t : diffs (a :: b :: t) = (b - a) :: diffs (b :: t).
Proof. reflexivity. Qed.

Lemma diffs_app a l1 b l2 :
  diffs ((a :: l1) ++ b :: l2) = diffs (a :: l1) ++ (b - last (a :: l1) 0) :: diffs (b :: l2).
Proof.
  revert a; induction l1 as [|x l1 IH]; intros a.
  - reflexivity.
  - cbn [app]. rewrite diffs_cons2. change (x :: l1 ++ b :: l2) with ((x :: l1) ++ b :: l2).
    rewrite (IH x). rewrite (diffs_cons2 a x l1). cbn [app].
    rewrite (last_cons_ne_local a (x :: l1)) by discriminate. reflexivity.
Qed.

Lemma lenN_diffs a l : lenN (diffs (a :: l)) = lenN l.
Proof.
  revert a; induction l as [|x l IH]; intros a; [reflexivity|]. rewrite diffs_cons2, !lenN_cons, IH. reflexivity.
Qed.

Lemma sumN_diffs a l : sorted_le (a :: l) = true -> sumN (diffs (a :: l)) = last (a :: l) 0 - a.
Proof.
  revert a; induction l as [|x l IH]; intros a Hs; [cbn; lia|].
  rewrite diffs_cons2. cbn [sumN]. rewrite (IH x (sorted_le_tail _ _ Hs)).
  rewrite (last_cons_ne_local a (x :: l)) by discriminate.
  assert (a <= x) by (cbn [sorted_le] in Hs; apply andb_prop in Hs; lia).
  assert (x <= last (x :: l) 0).
  { pose proof (nthN_last (x :: l) 0 ltac:(discriminate)) as HL.
    apply (sorted_le_nth (x :: l) (sorted_le_tail _ _ Hs) 0 (lenN (x :: l) - 1) x _ ltac:(lia) eq_refl HL). }
  lia.
Qed.

Lemma sorted_le_app_one l k : sorted_le l = true -> last l 0 <= k -> sorted_le (l ++ [k]) = true.
Proof.
  induction l as [|a t IH]; intros Hs Hk; [reflexivity|].
  destruct t as [|b t'].
  - cbn in *. destruct (a <=? k) eqn:E; [reflexivity|lia].
  - cbn [app sorted_le] in *. apply andb_prop in Hs. destruct Hs as [H1 H2].
    rewrite H1. cbn [andb]. apply IH; assumption.
Qed.

Lemma sorted_le_prefix l1 l2 : sorted_le (l1 ++ l2) = true -> sorted_le l1 = true.
Proof.
  induction l1 as [|a t IH]; intros H; [reflexivity|]. destruct t as [|b t']; [reflexivity|].
  cbn [app sorted_le] in *. apply andb_prop in H. destruct H as [H1 H2]. rewrite H1. cbn [andb]. apply IH. exact H2.
Qed.

Lemma ctts_crop_correct tb c : consistent tb = true -> t_ctts tb = Some c -> forall k, 1 <= k <= nsamples tb ->
  exists c', crop_ctts c k = Ok c' /\ ctos_of c' = firstnN (ctos_of c) k /\
             lenN (ct_end c') = lenN (ct_off c') + 1 /\ hd 1 (ct_end c') = 0 /\ sorted_le (ct_end c') = true /\
             last (ct_end c') 0 = k.
Proof.
  intros H Hc k Hk. destruct (consistent_parts tb H) as [_ [_ [Hct _]]]. unfold ctts_ok in Hct. rewrite Hc in Hct.
  apply andb_prop in Hct. destruct Hct as [Hct Hlast].
  apply andb_prop in Hct. destruct Hct as [Hct Hsort].
  apply andb_prop in Hct. destruct Hct as [Hlen Hhd].
  assert (Hne : ct_end c <> []) by (destruct (ct_end c); [rewrite lenN_nil in Hlen; lia|discriminate]).
  assert (H0 : nthN (ct_end c) 0 = Some 0).
  { destruct (ct_end c) as [|a t]; [congruence|]. cbn [hd] in Hhd. cbn [nthN N.eqb]. f_equal. lia. }
  pose proof (nthN_last (ct_end c) 0 Hne) as HL. replace (last (ct_end c) 0) with (nsamples tb) in HL by lia.
  destruct (bsearch_spec (fun v => v <? k) (ct_end c) (lt_prefix_true _ k Hsort) (bsearch_fuel (ct_end c)) 0
                         (lenN (ct_end c))) as [r [Hr [Hb [H1 H2]]]]; [lia|lia|apply bsearch_fuel_ok; lia|].
  assert (R1 : 1 <= r).
  { destruct (N.eq_dec r 0) as [->|]; [|lia]. specialize (H2 0 0 ltac:(lia) H0). lia. }
  assert (R2 : r <= lenN (ct_end c) - 1).
  { destruct (N.eq_dec r (lenN (ct_end c))) as [->|]; [|lia].
    specialize (H1 (lenN (ct_end c) - 1) (nsamples tb) ltac:(lia) HL). lia. }
  (* split End at r, Off at r-1 *)
  destruct (firstnN_split (ct_end c) r ltac:(lia)) as [E1 [E2 [HE [LE1 FE1]]]].
  destruct E2 as [|hi E2]; [rewrite HE, lenN_app, lenN_nil in R2; lia|].
  destruct E1 as [|e0 E1']; [rewrite lenN_nil in LE1; lia|].
  destruct (firstnN_split (ct_off c) (r - 1) ltac:(lia)) as [O1 [O2 [HO [LO1 FO1]]]].
  destruct O2 as [|o O2]; [rewrite HO, lenN_app, lenN_nil in Hlen; rewrite HE, lenN_app, (lenN_cons hi) in Hlen; lia|].
  assert (He0 : e0 = 0) by (rewrite HE in H0; cbn in H0; congruence).
  set (lo := last (e0 :: E1') 0).
  assert (Hlo : lo < k).
  { pose proof (nthN_last (e0 :: E1') 0 ltac:(discriminate)) as HL1.
    assert (nthN (ct_end c) (r - 1) = Some lo).
    { rewrite HE, nthN_app. destruct (r - 1 <? lenN (e0 :: E1')) eqn:E; [|lia]. rewrite <- LE1. exact HL1. }
    specialize (H1 (r - 1) lo ltac:(lia) H3). lia. }
  assert (Hhi : k <= hi).
  { assert (nthN (ct_end c) r = Some hi) by (rewrite HE, <- LE1; apply nthN_app_mid).
    specialize (H2 r hi ltac:(lia) H3). lia. }
  assert (Hlohi : lo <= hi) by lia.
  unfold crop_ctts. rewrite Hr. cbn [rbind]. destruct (lenN (ct_end c) <=? r) eqn:E; [lia|].
  assert (HU : updN (ct_end c) r k = (e0 :: E1') ++ k :: E2) by (rewrite HE, <- LE1; apply updN_app_mid).
  rewrite HU, slice_to_ok by (rewrite lenN_app, (lenN_cons k); lia).
  replace (r + 1) with (lenN (e0 :: E1') + 1) by lia. rewrite firstnN_snoc_split. cbn [rbind].
  rewrite slice_to_ok, HO by lia. replace r with (lenN O1 + 1) by lia. rewrite firstnN_snoc_split. cbn [rbind].
  eexists. split; [reflexivity|]. unfold ctos_of. cbn [ct_end ct_off].
  assert (Hs1 : sorted_le (e0 :: E1') = true) by (rewrite HE in Hsort; apply (sorted_le_prefix _ _ Hsort)).
  split; [|split; [|split; [|split]]].
  - rewrite HE, HO. rewrite (diffs_app e0 E1' k []), (diffs_app e0 E1' hi E2). fold lo.
    change (diffs [k]) with (@nil N).
    rewrite (expand_rl_cut (diffs (e0 :: E1')) O1 (hi - lo) o (diffs (hi :: E2)) O2 (k - lo)).
    + f_equal. rewrite (sumN_diffs e0 E1' Hs1). fold lo. lia.
    + rewrite lenN_diffs. rewrite lenN_cons in LE1. lia.
    + lia.
  - rewrite !lenN_app, !lenN_cons, !lenN_nil, ?(@lenN_nil Z). rewrite lenN_cons in LE1. lia.
  - cbn [app hd]. exact He0.
  - apply sorted_le_app_one; [exact Hs1|]. fold lo. lia.
  - rewrite last_app_ne_local by discriminate. reflexivity.
Qed.
