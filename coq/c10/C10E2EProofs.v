(* C10E2EProofs.v — updateChunkOffsets and the end-to-end statement: in the output file (non-mdat boxes of S bytes, then
   an mdat header of h bytes, then the concatenated byte ranges) every new chunk offset points inside the new mdat payload
   and every kept sample, located through the OUTPUT's cropped and shifted tables, holds the bytes it held in the input. *)
From V.lib Require Import Base.
From V.c09 Require Import C09Model C09Spec C09BaseProofs C09SttsProofs C09StscProofs.
From V.c10 Require Import C10Model C10RlProofs C10StscProofs C10ConsProofs C10LayoutProofs C10TermProofs.

Lemma nthN_firstnN {A} : forall (l : list A) k i, i < k -> nthN (firstnN l k) i = nthN l i.
Proof.
  unfold firstnN. induction l as [|x t IH]; intros k i H; [rewrite firstn_nil; reflexivity|].
  destruct (N.to_nat k) as [|m] eqn:Ek; [lia|]. cbn [firstn nthN]. destruct (i =? 0) eqn:E; [reflexivity|].
  replace m with (N.to_nat (k - 1)) by lia. apply IH. lia.
Qed.

Lemma sublist_firstnN {A} (l : list A) k a n : a + n <= k -> sublist (firstnN l k) a n = sublist l a n.
Proof.
  intros H. unfold sublist, firstnN. rewrite skipn_firstn_comm, firstn_firstn. f_equal. lia.
Qed.

Lemma sublist_app_skip {A} (p l : list A) x n : sublist (p ++ l) (lenN p + x) n = sublist l x n.
Proof.
  unfold sublist, lenN. rewrite skipn_app.
  replace (N.to_nat (N.of_nat (length p) + x)) with (length p + N.to_nat x)%nat by lia.
  rewrite skipn_all2 by lia. cbn [app]. f_equal. f_equal. lia.
Qed.

Lemma update_stco_Ok : forall l l', update_stco l = Ok l' -> l' = l /\ forallb is_u32 l = true.
Proof.
  induction l as [|x t IH]; intros l' H; cbn [update_stco] in H.
  - injection H as <-. split; reflexivity.
  - destruct (4294967295 <? x) eqn:E; [discriminate|].
    destruct (update_stco t) as [t'| | |] eqn:Et; try discriminate. cbn [rbind] in H. injection H as <-.
    destruct (IH t' eq_refl) as [-> Hu]. split; [reflexivity|]. cbn [forallb]. rewrite Hu. unfold is_u32. lia.
Qed.

Lemma crop_tables_inv tb k offs tb' : crop_tables tb k offs = Ok tb' ->
  crop_stsc (t_stsc tb) k = Ok (t_stsc tb') /\
  match t_stco tb with Some _ => forallb is_u32 offs = true | None => True end.
Proof.
  unfold crop_tables. intros H.
  destruct (crop_stts (t_stts_count tb) (t_stts_delta tb) k) as [st| | |]; try discriminate. cbn [rbind] in H.
  destruct (match t_ctts tb with None => Ok None | Some c => do c' <- crop_ctts c k; Ok (Some c') end) as [ct| | |];
    try discriminate. cbn [rbind] in H.
  destruct (crop_stsc (t_stsc tb) k) as [sc| | |]; try discriminate. cbn [rbind] in H.
  destruct (crop_stsz (t_stsz tb) k) as [sz| | |]; try discriminate. cbn [rbind] in H.
  destruct (t_stco tb) as [l|].
  - destruct (update_stco offs) as [l'| | |] eqn:Eu; try discriminate. cbn [rbind] in H. injection H as <-.
    cbn [t_stsc]. split; [reflexivity|]. apply (update_stco_Ok offs l' Eu).
  - cbn [rbind] in H. injection H as <-. cbn [t_stsc]. split; [reflexivity|exact I].
Qed.

(* the per-sample lists of the OUTPUT tables (after the shift) are the k-prefixes of the input's *)
Definition prefix_lists (tb tb2 : tables) (k : N) : Prop :=
  durs tb2 = firstnN (durs tb) k /\ sizes tb2 = firstnN (sizes tb) k /\
  (forall c, t_ctts tb = Some c -> exists c', t_ctts tb2 = Some c' /\ ctos_of c' = firstnN (ctos_of c) k) /\
  (forall l, t_stss tb = Some l -> t_stss tb2 = Some (filter (fun y => y <=? k) l)) /\
  (forall l, t_sdtp tb = Some l -> t_sdtp tb2 = Some (firstnN l k)) /\
  sample_chunks (counts_of tb2) 1 = firstnN (sample_chunks (counts_of tb) 1) k.

Lemma crop_tables_prefix tb k offs tb' : consistent tb = true -> 1 <= k <= nsamples tb ->
  new_offsets_ok tb k offs = true -> crop_tables tb k offs = Ok tb' ->
  consistent tb' = true /\ nsamples tb' = k /\ offsets tb' = offs /\ prefix_lists tb tb' k.
Proof.
  intros H Hk Hno Hc.
  destruct (crop_tables_consistent tb H k offs Hk Hno) as [tb1 [Hc1 [A [B [D1 [D2 [D3 [D4 [D5 [D6 E]]]]]]]]]].
  rewrite Hc in Hc1. injection Hc1 as <-. unfold prefix_lists. repeat split; assumption.
Qed.

Definition new_off (S h first o : N) : N := S + h + (o - first).

Lemma shift_val h S first o : first <= o -> o < 18446744073709551616 -> S + h + (o - first) < 18446744073709551616 ->
  u64 (o + shift_delta h S first) = new_off S h first o.
Proof.
  intros H1 H2 H3. unfold shift_delta, new_off, sub64, u64.
  rewrite (N.mod_small S) by lia. rewrite (N.mod_small (S + h)) by lia. rewrite (N.mod_small first) by lia.
  destruct (N.le_gt_cases first (S + h)) as [L|G].
  - replace (S + h + 18446744073709551616 - first) with ((S + h - first) + 1 * 18446744073709551616) by lia.
    rewrite N.mod_add by discriminate. rewrite (N.mod_small (S + h - first)) by lia.
    replace (o + (S + h - first)) with (S + h + (o - first)) by lia. apply N.mod_small. lia.
  - rewrite (N.mod_small (S + h + 18446744073709551616 - first)) by lia.
    replace (o + (S + h + 18446744073709551616 - first)) with ((S + h + (o - first)) + 1 * 18446744073709551616) by lia.
    rewrite N.mod_add by discriminate. apply N.mod_small. lia.
Qed.

Lemma shift_stco_spec d f : forall l l', (forall o, In o l -> u64 (o + d) = f o) -> shift_stco d l = Ok l' ->
  l' = map f l /\ forallb is_u32 l' = true.
Proof.
  induction l as [|x t IH]; intros l' Hf H; cbn [shift_stco] in H.
  - injection H as <-. split; reflexivity.
  - cbv zeta in H. destruct (4294967296 <=? u64 (x + d)) eqn:E; [discriminate|].
    destruct (shift_stco d t) as [t'| | |] eqn:Et; try discriminate. cbn [rbind] in H. injection H as <-.
    destruct (IH t' (fun o Ho => Hf o (or_intror Ho)) eq_refl) as [-> Hu].
    cbn [map forallb]. rewrite <- (Hf x (or_introl eq_refl)). split; [reflexivity|]. rewrite Hu. unfold is_u32. lia.
Qed.

Lemma shift_co64_spec d f l : (forall o, In o l -> u64 (o + d) = f o) -> shift_co64 d l = map f l.
Proof. intros Hf. unfold shift_co64. apply map_ext_in. exact Hf. Qed.

(* tb2 is tb with every chunk offset o replaced by f o *)
Definition moved (f : N -> N) (tb tb2 : tables) : Prop :=
  offsets tb2 = map f (offsets tb) /\ t_stsz tb2 = t_stsz tb /\ t_stsc tb2 = t_stsc tb /\
  t_stts_count tb2 = t_stts_count tb /\ t_stts_delta tb2 = t_stts_delta tb /\ t_ctts tb2 = t_ctts tb /\
  t_stss tb2 = t_stss tb /\ t_sdtp tb2 = t_sdtp tb /\
  match t_stco tb2 with Some l => forallb is_u32 l = true | None => t_co64 tb2 <> None end.

Lemma shift_track_spec d f tb tb2 : (forall o, In o (offsets tb) -> u64 (o + d) = f o) ->
  shift_track d tb = Ok tb2 -> moved f tb tb2.
Proof.
  intros Hf H. unfold shift_track in H. unfold moved, offsets in *.
  destruct (t_stco tb) as [l|] eqn:Es.
  - destruct (shift_stco d l) as [l'| | |] eqn:El; try discriminate. cbn [rbind] in H. injection H as <-.
    destruct (shift_stco_spec d f l l' Hf El) as [-> Hu]. cbn [set_offsets t_stco t_co64 t_stsz t_stsc t_stts_count t_stts_delta t_ctts t_stss t_sdtp].
    repeat split; try reflexivity. exact Hu.
  - destruct (t_co64 tb) as [l|] eqn:Ec; [|discriminate]. injection H as <-.
    cbn [set_offsets t_stco t_co64 t_stsz t_stsc t_stts_count t_stts_delta t_ctts t_stss t_sdtp].
    rewrite (shift_co64_spec d f l Hf). repeat split; try reflexivity. discriminate.
Qed.

Lemma moved_views f tb tb2 : moved f tb tb2 ->
  sizes tb2 = sizes tb /\ durs tb2 = durs tb /\ nsamples tb2 = nsamples tb /\ nchunks tb2 = nchunks tb /\
  counts_of tb2 = counts_of tb.
Proof.
  intros [Ho [Hz [Hs [Hc [Hd _]]]]].
  assert (HC : nchunks tb2 = nchunks tb) by (unfold nchunks; rewrite Ho; unfold lenN; rewrite map_length; reflexivity).
  unfold counts_of, nsamples, sizes, durs. rewrite Hz, Hs, Hc, Hd, HC. repeat split; reflexivity.
Qed.

Lemma moved_prefix f tb0 tb tb2 k : prefix_lists tb0 tb k -> moved f tb tb2 -> prefix_lists tb0 tb2 k.
Proof.
  intros [P1 [P2 [P3 [P4 [P5 P6]]]]] M. destruct (moved_views f tb tb2 M) as [V1 [V2 [_ [_ V5]]]].
  destruct M as [_ [_ [_ [_ [_ [Hct [Hss [Hsd _]]]]]]]].
  unfold prefix_lists. rewrite V1, V2, V5, Hct, Hss, Hsd. repeat split; assumption.
Qed.

Definition cut_ok (t : trak_state) : Prop :=
  1 <= ts_last_sample t <= nsamples (ts_tb t) /\ S_chunk_of (ts_tb t) (ts_last_sample t) = Some (ts_last_chunk t).

(* what the layout (C10_layout_total) leaves of a track that findTrakEnds cut at cut_ok; the last part keeps the
   64-bit arithmetic of the shift from wrapping *)
Definition laid_out (file out : list N) (first' : N) (t : trak_state) : Prop :=
  static_ok file t /\ cut_ok t /\ lenN (ts_offsets t) = ts_last_chunk t /\
  (forall c, 1 <= c <= ts_last_chunk t ->
             exists no, nthN (ts_offsets t) (c - 1) = Some no /\ chunk_placed file out first' t c no) /\
  first' + lenN out + sumN (sizes (ts_tb t)) < 18446744073709551616.

(* cropStblChildren and updateChunkOffsets succeeded on the track: the cropped tables are the consistent k-prefix with
   the new chunk offsets, the shifted ones differ from them by new_off on every offset *)
Lemma track_tables file out first' S h t tb' tb2 :
  laid_out file out first' t -> S + h + lenN out < 18446744073709551616 ->
  crop_tables (ts_tb t) (ts_last_sample t) (ts_offsets t) = Ok tb' ->
  shift_track (shift_delta h S first') tb' = Ok tb2 ->
  consistent tb' = true /\ nsamples tb' = ts_last_sample t /\ offsets tb' = ts_offsets t /\
  prefix_lists (ts_tb t) tb' (ts_last_sample t) /\ moved (new_off S h first') tb' tb2 /\
  (forall o, In o (ts_offsets t) -> first' <= o /\ o - first' <= lenN out).
Proof.
  intros [[Hc Hst] [[Hk Hch] [Hlen [Hpl Hb]]]] Hb2 Hcrop Hshift.
  assert (Hno : forall o, In o (ts_offsets t) -> first' <= o /\ o - first' <= lenN out).
  { intros o Ho. destruct (In_nthN _ _ Ho) as [i Hi]. pose proof (nthN_Some_lt _ _ _ Hi) as Hil.
    destruct (Hpl (i + 1) ltac:(lia)) as [no [Hn [oo [_ [A [B _]]]]]].
    replace (i + 1 - 1) with i in Hn by lia. rewrite Hi in Hn. injection Hn as <-. lia. }
  assert (Hnok : new_offsets_ok (ts_tb t) (ts_last_sample t) (ts_offsets t) = true).
  { unfold new_offsets_ok. rewrite Hch. apply andb_true_intro. split; [apply andb_true_intro; split|].
    - lia.
    - apply forallb_forall. intros o Ho. destruct (Hno o Ho).
      pose proof (sumN_firstn_le (sizes (ts_tb t)) (N.to_nat (ts_last_sample t))). unfold firstnN. lia.
    - destruct (crop_tables_inv _ _ _ _ Hcrop) as [_ Hu32]. destruct (t_stco (ts_tb t)); [exact Hu32|reflexivity]. }
  destruct (crop_tables_prefix _ _ _ _ Hc Hk Hnok Hcrop) as [Hc' [HN' [Hoffs Hpre]]].
  repeat (split; [assumption|]). split; [|exact Hno].
  apply (shift_track_spec (shift_delta h S first')); [|exact Hshift].
  intros o Ho. rewrite Hoffs in Ho. destruct (Hno o Ho). apply shift_val; unfold new_off; lia.
Qed.

Definition track_result (file out pre hdr : list N) (S h first' : N) (t : trak_state) : Prop :=
  forall tb' tb2, crop_tables (ts_tb t) (ts_last_sample t) (ts_offsets t) = Ok tb' ->
  shift_track (shift_delta h S first') tb' = Ok tb2 ->
  consistent tb' = true /\ nsamples tb2 = ts_last_sample t /\ nchunks tb2 = ts_last_chunk t /\
  (forall c, 1 <= c <= ts_last_chunk t ->
     exists o, S_chunk_offset tb2 c = Some o /\ S + h <= o /\
               o + csize (ts_tb t) (ts_last_sample t) c <= S + h + lenN out) /\
  (forall n, 1 <= n <= ts_last_sample t ->
     exists off off' sz, S_offset_of (ts_tb t) n = Some off /\ S_size (ts_tb t) n = Some sz /\
                         S_offset_of tb2 n = Some off' /\ S_size tb2 n = Some sz /\
                         sublist (pre ++ hdr ++ out) off' sz = sublist file off sz).

Lemma track_end_to_end file out first' S h t pre hdr :
  laid_out file out first' t -> lenN pre = S -> lenN hdr = h -> S + h + lenN out < 18446744073709551616 ->
  track_result file out pre hdr S h first' t.
Proof.
  intros Hlo HS Hh Hb2 tb' tb2 Hcrop Hshift.
  destruct (track_tables file out first' S h t tb' tb2 Hlo Hb2 Hcrop Hshift)
    as [Hc' [HN' [Hoffs [[_ [Hsizes [_ [_ [_ Hsch]]]]] [Hmv Hno]]]]].
  destruct (moved_views _ _ _ Hmv) as [Hsz2 [_ [HN2 [HC2 Hcnt2]]]]. destruct Hmv as [Ho2 _].
  destruct Hlo as [Hst [[Hk Hch] [Hlen [Hpl Hb]]]]. pose proof Hst as [Hc _].
  set (tb := ts_tb t) in *. set (k := ts_last_sample t) in *. set (C := ts_last_chunk t) in *.
  rewrite Hoffs in Ho2. rewrite Hsizes in Hsz2.
  assert (HC' : nchunks tb' = C) by (unfold nchunks; rewrite Hoffs; exact Hlen).
  (* the first sample of every kept chunk is unchanged *)
  destruct (stsc_crop_correct tb Hc k Hk) as [b' [C' [Hb' [HchC [HCr [Hcc _]]]]]].
  rewrite Hch in HchC. injection HchC as <-.
  destruct (crop_tables_inv tb k _ tb' Hcrop) as [Hsc _]. rewrite Hsc in Hb'. injection Hb' as <-.
  assert (Hfic : forall c, 1 <= c <= C -> S_first_in_chunk tb2 c = S_first_in_chunk tb c).
  { intros c Hcr. unfold S_first_in_chunk. rewrite Hcnt2. unfold counts_of at 1. rewrite HC', Hcc.
    f_equal. f_equal. fold (firstnN (firstnN (counts_of tb) (C - 1) ++ [k + 1 - S_first_in_chunk tb C]) (c - 1)).
    destruct (stsc_facts tb Hc) as [_ [_ [_ [_ [_ [_ [_ [_ [HlenC _]]]]]]]]].
    rewrite firstnN_app_l by (rewrite lenN_firstnN; lia).
    unfold firstnN. rewrite firstn_firstn. f_equal. lia. }
  split; [exact Hc'|]. split; [lia|]. split; [lia|]. split.
  - (* chunk offsets inside the new mdat payload *)
    intros c Hcr. destruct (Hpl c Hcr) as [no [Hn [oo [_ [A [B _]]]]]].
    exists (new_off S h first' no). split.
    + unfold S_chunk_offset. destruct (c =? 0) eqn:E; [lia|]. rewrite Ho2, nthN_map, Hn. reflexivity.
    + unfold new_off. subst tb k. lia.
  - (* every kept sample *)
    intros n Hn.
    destruct (chunk_of_sample_correct tb' Hc' n ltac:(lia)) as [c [Hcn [Hcr _]]].
    assert (Hcn0 : S_chunk_of tb n = Some c).
    { unfold S_chunk_of in *. destruct (n =? 0) eqn:E; [lia|]. rewrite Hsch in Hcn. rewrite nthN_firstnN in Hcn by lia. exact Hcn. }
    rewrite HC' in Hcr.
    destruct (Hpl c Hcr) as [no [Hno' Hplaced]].
    destruct (sample_placed file out first' t c no n Hst Hplaced Hcn0 ltac:(fold k; lia) ltac:(fold tb; lia))
      as [off [sz [Hoff [Hsz Hbytes]]]].
    destruct Hplaced as [oo [_ [A [B _]]]].
    exists off, (new_off S h first' no + S_total_size tb (S_first_in_chunk tb c) (n - 1)), sz.
    split; [exact Hoff|]. split; [exact Hsz|].
    assert (Hcn2 : S_chunk_of tb2 n = Some c).
    { unfold S_chunk_of in *. destruct (n =? 0) eqn:E; [lia|]. rewrite Hcnt2. exact Hcn. }
    assert (Htot : S_total_size tb2 (S_first_in_chunk tb c) (n - 1) = S_total_size tb (S_first_in_chunk tb c) (n - 1)).
    { unfold S_total_size. rewrite Hsz2.
      destruct (N.le_gt_cases (S_first_in_chunk tb c) n) as [L|G].
      - rewrite sublist_firstnN; [reflexivity|]. unfold S_first_in_chunk in *. lia.
      - replace (n - 1 + 1 - S_first_in_chunk tb c) with 0 by lia. reflexivity. }
    split; [|split].
    + unfold S_offset_of. rewrite Hcn2. unfold S_chunk_offset. destruct (c =? 0) eqn:E; [lia|].
      rewrite Ho2, nthN_map, Hno'. cbn [option_map]. rewrite (Hfic c Hcr), Htot. reflexivity.
    + unfold S_size in *. destruct (n =? 0) eqn:E; [lia|]. rewrite Hsz2, nthN_firstnN by lia. exact Hsz.
    + rewrite <- Hbytes. unfold new_off. rewrite app_assoc.
      replace (S + h + (no - first') + S_total_size tb (S_first_in_chunk tb c) (n - 1))
        with (lenN (pre ++ hdr) + (no - first' + S_total_size tb (S_first_in_chunk tb c) (n - 1)))
        by (rewrite lenN_app; lia).
      apply sublist_app_skip.
Qed.

Lemma track_prefix file out first' S h t tb' tb2 :
  laid_out file out first' t -> S + h + lenN out < 18446744073709551616 ->
  crop_tables (ts_tb t) (ts_last_sample t) (ts_offsets t) = Ok tb' ->
  shift_track (shift_delta h S first') tb' = Ok tb2 ->
  prefix_lists (ts_tb t) tb2 (ts_last_sample t).
Proof.
  intros Hlo Hb2 Hcrop Hshift.
  destruct (track_tables file out first' S h t tb' tb2 Hlo Hb2 Hcrop Hshift) as [_ [_ [_ [Hpre [Hmv _]]]]].
  exact (moved_prefix _ _ _ _ _ Hpre Hmv).
Qed.

Lemma P_initial t : ts_next t = 1 -> P t = sumN (sizes (ts_tb t)).
Proof.
  intros H. unfold P. rewrite H. unfold S_first_in_chunk, S_total_size, sublist, nsamples, lenN.
  replace (N.to_nat (1 - 1)) with 0%nat by lia. cbn [firstn sumN].
  replace (N.to_nat (1 + 0 - 1)) with 0%nat by lia. cbn [skipn].
  replace (N.to_nat (N.of_nat (length (sizes (ts_tb t))) + 1 - (1 + 0))) with (length (sizes (ts_tb t))) by lia.
  rewrite firstn_all. reflexivity.
Qed.

Lemma pot_initial : forall ts0, Forall (fun t => ts_next t = 1 /\ ts_offsets t = []) ts0 ->
  pot ts0 = sumN (map (fun t => sumN (sizes (ts_tb t))) ts0).
Proof.
  unfold pot. induction ts0 as [|t r IH]; intros H; [reflexivity|].
  inversion H as [|? ? [Ht _] Hr]; subst. cbn [map sumN]. rewrite (IH Hr), (P_initial t Ht). reflexivity.
Qed.

(* the loop run from the tracks findTrakEnds returns: every track is laid out, and the output is no longer than the
   tracks' sample bytes (pot ts0) *)
Lemma tracks_laid_out file ts0 :
  Forall (static_ok file) ts0 -> Forall (fun t => ts_next t = 1 /\ ts_offsets t = []) ts0 -> Forall cut_ok ts0 ->
  4611686018427387904 + 2 * pot ts0 < 18446744073709551616 ->
  exists ts' ranges first', fill_loop (fill_fuel ts0) ts0 [] 0 0 = Ok (ts', ranges, first') /\
    map static ts' = map static ts0 /\ Forall (range_in file) ranges /\ lenN (out_bytes file ranges) <= pot ts0 /\
    Forall (fun t => laid_out file (out_bytes file ranges) first' t /\ sumN (sizes (ts_tb t)) <= pot ts0) ts'.
Proof.
  intros Hst Hinit Hcut HB.
  destruct (layout_total file ts0 Hst Hinit ltac:(lia)) as [ts' [ranges [first' [Hrun [Hstat Hall]]]]].
  destruct (layout_ranges file ts0 _ ts' ranges first' Hst Hinit ltac:(lia) Hrun) as [Hrin [Hf62 Hlen]].
  exists ts', ranges, first'. repeat (split; [assumption|]). pose proof (pot_initial ts0 Hinit) as Hpot.
  rewrite Forall_forall in *. intros t Hin. destruct (Hall t Hin) as [Hs [_ [Hlo Hpl]]].
  (* the state findTrakEnds gave for this track *)
  assert (Hi : In (static t) (map static ts0)) by (rewrite <- Hstat; apply in_map; exact Hin).
  apply in_map_iff in Hi. destruct Hi as [t0 [Est Hin0]]. unfold static in Est. injection Est as _ Etb Els Elc.
  pose proof (In_le_sum_map (fun t => sumN (sizes (ts_tb t))) ts0 t0 Hin0) as HP.
  rewrite <- Hpot, Etb in HP.
  pose proof (Hcut t0 Hin0) as Hc0. unfold cut_ok in Hc0. rewrite Etb, Els, Elc in Hc0.
  split; [|exact HP]. unfold laid_out. repeat (split; [assumption|]). lia.
Qed.

Lemma samples_end_to_end file ts0 S h pre hdr :
  Forall (static_ok file) ts0 -> Forall (fun t => ts_next t = 1 /\ ts_offsets t = []) ts0 -> Forall cut_ok ts0 ->
  4611686018427387904 + 2 * pot ts0 < 18446744073709551616 ->
  lenN pre = S -> lenN hdr = h -> S + h + pot ts0 < 18446744073709551616 ->
  exists ts' ranges first', fill_loop (fill_fuel ts0) ts0 [] 0 0 = Ok (ts', ranges, first') /\
    map static ts' = map static ts0 /\ Forall (range_in file) ranges /\
    Forall (track_result file (out_bytes file ranges) pre hdr S h first') ts'.
Proof.
  intros Hst Hinit Hcut HB HS Hh HB2.
  destruct (tracks_laid_out file ts0 Hst Hinit Hcut HB) as [ts' [ranges [first' [Hrun [Hstat [Hrin [Hlen Hall]]]]]]].
  exists ts', ranges, first'. repeat (split; [assumption|]).
  revert Hall. apply Forall_impl. intros t [Hlo _]. apply track_end_to_end; [assumption..|lia].
Qed.

(* shift_tracks / crop_all succeed track by track *)
Lemma shift_tracks_Forall2 d : forall tbs tbs', shift_tracks d tbs = Ok tbs' ->
  Forall2 (fun a b => shift_track d a = Ok b) tbs tbs'.
Proof.
  induction tbs as [|tb r IH]; intros tbs' H; cbn [shift_tracks] in H.
  - injection H as <-. constructor.
  - destruct (shift_track d tb) as [tb'| | |] eqn:E; try discriminate. cbn [rbind] in H.
    destruct (shift_tracks d r) as [r'| | |] eqn:Er; try discriminate. cbn [rbind] in H. injection H as <-.
    constructor; [exact E|apply IH; reflexivity].
Qed.

Lemma crop_all_Forall2 : forall ts tbs, crop_all ts = Ok tbs ->
  Forall2 (fun t b => crop_tables (ts_tb t) (ts_last_sample t) (ts_offsets t) = Ok b) ts tbs.
Proof.
  induction ts as [|t r IH]; intros tbs H; cbn [crop_all] in H.
  - injection H as <-. constructor.
  - destruct (crop_tables (ts_tb t) (ts_last_sample t) (ts_offsets t)) as [tb'| | |] eqn:E; try discriminate. cbn [rbind] in H.
    destruct (crop_all r) as [r'| | |] eqn:Er; try discriminate. cbn [rbind] in H. injection H as <-.
    constructor; [exact E|apply IH; reflexivity].
Qed.

(* the shift must use the size of the header that is actually written: with the input's 16-byte largesize header size
   in updateChunkOffsets and the 8-byte header writeMdat writes, sample 1 is read 8 bytes too far *)
Definition wx_file : list N := map N.of_nat (seq 0 400).
Definition wx_tb : tables :=
  mkTables [3; 1; 3] [10; 20; 5] None (mkStsc [mkEntry 1 2 1; mkEntry 3 3 5] 0 [1; 2])
           (mkStsz 0 7 [4; 5; 6; 7; 8; 9; 10]) (Some [100; 200; 300]) None None None.
Lemma wrong_header_refuted :
  exists ts' ranges tb' tb8 tb16 pre hdr,
    fill_loop (fill_fuel [mkTS 1 wx_tb 5 3 1 []]) [mkTS 1 wx_tb 5 3 1 []] [] 0 0 = Ok (ts', ranges, 100) /\
    lenN pre = 50 /\ lenN hdr = 8 /\
    crop_all ts' = Ok [tb'] /\
    update_chunk_offsets_h 8 50 100 [tb'] = Ok [tb8] /\ update_chunk_offsets_h 16 50 100 [tb'] = Ok [tb16] /\
    S_offset_of wx_tb 1 = Some 100 /\ S_offset_of tb8 1 = Some 58 /\ S_offset_of tb16 1 = Some 66 /\
    sublist (pre ++ hdr ++ out_bytes wx_file ranges) 58 4 = sublist wx_file 100 4 /\
    sublist (pre ++ hdr ++ out_bytes wx_file ranges) 66 4 <> sublist wx_file 100 4.
Proof.
  eexists _, _, _, _, _, (repeat 0 50), (repeat 0 8).
  split; [vm_compute; reflexivity|]. split; [reflexivity|]. split; [reflexivity|].
  split; [vm_compute; reflexivity|]. split; [vm_compute; reflexivity|]. split; [vm_compute; reflexivity|].
  split; [vm_compute; reflexivity|]. split; [vm_compute; reflexivity|]. split; [vm_compute; reflexivity|].
  split; [vm_compute; reflexivity|]. vm_compute. discriminate.
Qed.
