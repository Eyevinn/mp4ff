(* C10TreeProofs.v — print-then-parse for the tree mp4ff-crop encodes (C10TreeModel.v), on C01's box model.
   C01's fixed-point theorem is about trees that were DECODED; the output moov of the crop is the decoded input moov with
   some leaves replaced and every container on the way re-sized, so it is not a decoded tree.  This file proves
     * the fuel of C01's decoder is irrelevant above a structural bound (need);
     * pp t ("prints and parses"): the encoder's bytes of t have Size() bytes and decode -- whatever follows them -- to
       norm_box t; it holds of every decoded exact tree (C01's stable_all), of the leaves the crop rebuilds when their
       values fit their fields, and of a container whose children all have it. *)
From V.lib Require Import Base.
From V.c01 Require Import C01Codec C01Model C01FileModel C01TreeProofs C01LeafProofs C01SizeProofs
  C01StableProofs C01WhyProofs C01FixProofs.
From V.c10 Require Import C10TreeModel.

Definition needs_with (need : mbox -> nat) (cs : list mbox) : nat :=
  fold_right (fun c acc => S (Nat.max (need c) acc)) 1%nat cs.
Fixpoint need (t : mbox) : nat :=
  match t with
  | MLeaf _ _ _ => 1
  | MUnknown _ _ => 1
  | MCont _ cs => S (fold_right (fun c acc => S (Nat.max (need c) acc)) 1%nat cs)
  | MPre _ _ _ cs => S (fold_right (fun c acc => S (Nat.max (need c) acc)) 1%nat cs)
  end.
Definition needs (cs : list mbox) : nat := needs_with need cs.

Lemma needs_cons c t : needs (c :: t) = S (Nat.max (need c) (needs t)).
Proof. reflexivity. Qed.
Lemma need_cont h cs : need (MCont h cs) = S (needs cs).
Proof. reflexivity. Qed.
Lemma need_pre h l r cs : need (MPre h l r cs) = S (needs cs).
Proof. reflexivity. Qed.
Lemma need_pos t : (1 <= need t)%nat.
Proof. destruct t; cbn [need]; lia. Qed.
Lemma needs_pos cs : (1 <= needs cs)%nat.
Proof. destruct cs; [cbn; lia|rewrite needs_cons; lia]. Qed.

Definition fi_box (f : nat) : Prop :=
  forall bs t r, decode_box f bs = Ok (t, r) -> forall f', (need t <= f')%nat -> decode_box f' bs = Ok (t, r).
Definition fi_children (f : nat) : Prop :=
  forall tgt pos used bs cs r, decode_children f tgt pos used bs = Ok (cs, r) ->
    forall f', (needs cs <= f')%nat -> decode_children f' tgt pos used bs = Ok (cs, r).
Definition fi_entries (f : nat) : Prop :=
  forall tgt pos bs cs r, decode_entries f tgt pos bs = Ok (cs, r) ->
    forall f', (needs cs <= f')%nat -> decode_entries f' tgt pos bs = Ok (cs, r).

Lemma fuel_indep f : fi_box f /\ fi_children f /\ fi_entries f.
Proof.
  induction f as [|f (IHb & IHc & IHe)].
  - repeat split; intros until 1; discriminate.
  - split; [|split].
    + intros bs t r H f' Hn. destruct f' as [|f'']; [pose proof (need_pos t); lia|].
      apply decode_box_S in H. destruct H as (h & r0 & Eh & Eroom & D).
      apply decode_box_S. exists h, r0. split; [exact Eh|]. split; [exact Eroom|].
      (* the dispatch looks at the fuel only where it reads children *)
      destruct D as [d l rsv r' El Ed|d lk l rsv r1 cs r' El Ep Ed K|cs r' El Ep Ecl Ec Ee|p r' El Ep Ecl Eu].
      * now apply (DLeaf _ _ _ d).
      * rewrite need_pre in Hn. apply (DPre _ _ _ d lk _ _ r1); try assumption.
        destruct K as [off Eo Ec En|start Ec]; constructor; try assumption.
        -- apply (IHc _ _ _ _ _ _ Ec). lia.
        -- apply (IHe _ _ _ _ _ Ec). lia.
      * rewrite need_cont in Hn. apply DCont; try assumption. apply (IHc _ _ _ _ _ _ Ec). lia.
      * now apply DUnknown.
    + intros tgt pos used bs cs r H f' Hn. destruct f' as [|f'']; [pose proof (needs_pos cs); lia|].
      cbn [decode_children] in H |- *.
      destruct (tgt <? pos); try discriminate.
      destruct (pos =? tgt); [exact H|].
      destruct (decode_box f bs) as [[c r1]| | |] eqn:Eb; try discriminate.
      destruct (negb (pos + size_box c =? used + (lenN bs - lenN r1))) eqn:Echk; try discriminate.
      destruct (decode_children f tgt (pos + size_box c) (used + (lenN bs - lenN r1)) r1) as [[cs' r']| | |] eqn:Ec;
        try discriminate.
      injection H as <- <-. rewrite needs_cons in Hn.
      rewrite (IHb _ _ _ Eb f'') by lia. rewrite Echk. now rewrite (IHc _ _ _ _ _ _ Ec f'') by lia.
    + intros tgt pos bs cs r H f' Hn. destruct f' as [|f'']; [pose proof (needs_pos cs); lia|].
      cbn [decode_entries] in H |- *.
      destruct (tgt <=? pos); [exact H|].
      destruct (decode_box f bs) as [[c r1]| | |] eqn:Eb; try discriminate.
      destruct (decode_entries f tgt (pos + size_box c) r1) as [[cs' r']| | |] eqn:Ec; try discriminate.
      injection H as <- <-. rewrite needs_cons in Hn.
      rewrite (IHb _ _ _ Eb f'') by lia. now rewrite (IHe _ _ _ _ _ Ec f'') by lia.
Qed.

Lemma need_norm t : need (norm_box t) = need t.
Proof.
  induction t as [h l r|h cs IH|h p|h l r cs IH] using mbox_rect2; cbn [norm_box need]; try reflexivity.
  - f_equal. induction IH as [|c t Hc _ IHt]; [reflexivity|]. cbn [map fold_right]. now rewrite Hc, IHt.
  - f_equal. induction IH as [|c t Hc _ IHt]; [reflexivity|]. cbn [map fold_right]. now rewrite Hc, IHt.
Qed.

(* ppr t t': the encoder's bytes of t are Size() many and decode -- whatever follows them -- to t' (for a decoded tree
   t' = norm_box t; for a rebuilt stsc leaf t' carries the sample description ids in the form the decoder builds) *)
Definition ppr (t t' : mbox) : Prop :=
  exists enc, raw_box false t = Ok enc /\ lenN enc = size_box t /\ size_box t' = size_box t /\
    box_name t' = box_name t /\ (need t' <= length enc)%nat /\
    forall f r2, (need t' <= f)%nat -> decode_box f (enc ++ r2) = Ok (t', r2).
Definition pp (t : mbox) : Prop := ppr t (norm_box t).

(* the fuel a tree needs is at most the number of bytes it is encoded in *)
Lemma needs_le_sum cs : forall enc,
  Forall (fun c => exact_box c = true -> forall e, raw_box false c = Ok e -> (need c <= length e)%nat) cs ->
  forallb exact_box cs = true -> cat_encs (map (genc false) cs) = Ok enc -> (needs cs <= S (length enc))%nat.
Proof.
  induction cs as [|c t IH]; intros enc HF Hex Hc; [cbn; lia|].
  inversion HF as [|? ? Hc0 Hct]; subst. cbn [forallb] in Hex. apply andb_true_iff in Hex. destruct Hex as [Hex0 Hext].
  cbn [map cat_encs fold_right genc snd] in Hc. fold (cat_encs (map (genc false) t)) in Hc.
  destruct (rcat_ok _ _ _ Hc) as (x & y & Hx & Hy & ->).
  specialize (IH y Hct Hext Hy). specialize (Hc0 Hex0 x Hx). pose proof (need_pos c). rewrite needs_cons, app_length. lia.
Qed.

(* a moov whose traks already come in the encoder's order is encoded child by child *)
Lemma moov_order_stable n cs : (bytes_eqb n n_moov = true -> moov_stable_from is_trak_box [] cs = true) ->
  (if bytes_eqb n n_moov then moov_order fst (map (genc false) cs) else map (genc false) cs) = map (genc false) cs.
Proof.
  intros Hm. destruct (bytes_eqb n n_moov); [|reflexivity]. unfold moov_order. rewrite moov_stable_id; [reflexivity|].
  change (@nil (bool * res (list N))) with (map (genc false) []).
  rewrite (moov_stable_map is_trak_box (genc false)); [now apply Hm|reflexivity].
Qed.

Lemma need_le_raw t : exact_box t = true -> forall enc, raw_box false t = Ok enc -> (need t <= length enc)%nat.
Proof.
  induction t as [h l r|h cs IH|h p|h l r cs IH] using mbox_rect2; intros Hex enc He.
  - cbn [raw_box] in He. unfold raw_leaf in He. destruct (body_leaf l (dflt_rsv l)) as [b| | |]; try discriminate.
    injection He as <-. cbn [need]. rewrite app_length. unfold leaf_hdr, enc_hdr, enc_hdr_large.
    destruct (leaf_large l); rewrite !app_length, length_be_enc; lia.
  - cbn [exact_box] in Hex.
    apply andb_true_iff in Hex. destruct Hex as [Hex _].
    apply andb_true_iff in Hex. destruct Hex as [Hex Hmoov].
    apply andb_true_iff in Hex. destruct Hex as [_ Hcs].
    rewrite raw_box_cont in He. cbv zeta in He.
    rewrite moov_order_stable in He by (intros E; rewrite E in Hmoov; exact Hmoov).
    assert (Hall : exists body, cat_encs (map (genc false) cs) = Ok body /\
                     enc = enc_hdr (h_name h) (8 + sumN (map size_box cs)) ++ body).
    { destruct (cat_encs (map (genc false) cs)) as [body| | |] eqn:Eb; cbn [rcat] in He;
        try (destruct (bytes_eqb (h_name h) n_moof); [destruct (moof_pre cs)|]; discriminate).
      exists body. split; [reflexivity|].
      destruct (bytes_eqb (h_name h) n_moof); [destruct (moof_pre cs); try discriminate|]; now injection He as <-. }
    destruct Hall as (body & Hb & ->). rewrite need_cont, app_length. unfold enc_hdr. rewrite app_length, length_be_enc.
    pose proof (needs_le_sum cs body IH Hcs Hb). lia.
  - cbn [raw_box] in He. injection He as <-. cbn [need]. rewrite app_length.
    destruct (8 <? h_len h); unfold enc_hdr, enc_hdr_large; rewrite !app_length, length_be_enc; lia.
  - cbn [exact_box] in Hex.
    apply andb_true_iff in Hex. destruct Hex as [Hex Hcs].
    rewrite raw_box_pre in He.
    destruct (rcat_ok _ _ _ He) as (x & y & Hx & Hy & ->). injection Hx as <-.
    destruct (rcat_ok _ _ _ Hy) as (b & body & _ & Hb & ->).
    rewrite need_pre, !app_length. unfold enc_hdr. rewrite app_length, length_be_enc.
    pose proof (needs_le_sum cs body IH Hcs Hb). lia.
Qed.

(* every decoded exact tree (C01's stable_all), at every fuel the structure needs *)
Lemma pp_decoded f bs t rest : bytes_ok bs = true -> decode_box f bs = Ok (t, rest) -> exact_box t = true -> pp t.
Proof.
  intros Hok H Hex. destruct (proj1 (stable_all f) bs t rest Hok H Hex) as (enc & He & _ & Hs & Hrep).
  exists enc. split; [exact He|]. split; [exact Hs|]. split; [apply size_norm|]. split; [apply name_norm|].
  split; [rewrite need_norm; now apply need_le_raw|].
  intros f' r2 Hn. exact (proj1 (fuel_indep f) _ _ _ (Hrep r2) f' Hn).
Qed.

Lemma ppr_size_pos t t' : ppr t t' -> 0 < size_box t.
Proof.
  intros (enc & _ & Hl & _ & _ & _ & Hrep). specialize (Hrep (need t') [] (le_n _)). rewrite app_nil_r in Hrep.
  destruct enc as [|b e]; [|rewrite <- Hl, lenN_cons; lia].
  exfalso. pose proof (need_pos t') as Hp. destruct (need t'); [lia|]. cbn in Hrep. discriminate.
Qed.

Lemma ppr_children cs cs' : Forall2 ppr cs cs' ->
  exists enc, cat_encs (map (genc false) cs) = Ok enc /\ lenN enc = sumN (map size_box cs) /\
    map size_box cs' = map size_box cs /\ map box_name cs' = map box_name cs /\ (needs cs' <= S (length enc))%nat /\
    forall f pos r2, (needs cs' <= f)%nat ->
      decode_children f (pos + sumN (map size_box cs)) pos pos (enc ++ r2) = Ok (cs', r2).
Proof.
  induction 1 as [|c c' t t' Hc _ (e2 & He2 & Hl2 & Hs2 & Hn2 & Hb2 & Hrep2)].
  - exists []. do 4 (split; [reflexivity|]). split; [cbn; lia|]. intros f pos r2 Hn. destruct f; [cbn in Hn; lia|].
    cbn [decode_children map sumN app]. rewrite N.add_0_r, N.ltb_irrefl, N.eqb_refl. reflexivity.
  - pose proof (ppr_size_pos _ _ Hc) as Hpos. destruct Hc as (e1 & He1 & Hl1 & Hs1 & Hn1 & Hb1 & Hrep1).
    exists (e1 ++ e2). cbn [map cat_encs fold_right genc snd sumN]. fold (cat_encs (map (genc false) t)).
    rewrite He1, He2. cbn [rcat]. split; [reflexivity|]. split; [rewrite lenN_app; lia|].
    split; [now rewrite Hs1, Hs2|]. split; [now rewrite Hn1, Hn2|].
    split; [rewrite needs_cons, app_length; pose proof (need_pos c'); lia|].
    intros f pos r2 Hn. rewrite needs_cons in Hn. destruct f as [|f]; [lia|]. cbn [decode_children].
    replace (pos + (size_box c + sumN (map size_box t)) <? pos) with false by (symmetry; apply N.ltb_ge; lia).
    replace (pos =? pos + (size_box c + sumN (map size_box t))) with false by (symmetry; apply N.eqb_neq; lia).
    rewrite <- app_assoc, Hrep1 by lia. rewrite Hs1.
    replace (pos + (lenN (e1 ++ e2 ++ r2) - lenN (e2 ++ r2))) with (pos + size_box c) by (rewrite !lenN_app; lia).
    rewrite N.eqb_refl. cbn [negb].
    replace (pos + (size_box c + sumN (map size_box t))) with (pos + size_box c + sumN (map size_box t)) by lia.
    rewrite Hrep2 by lia. reflexivity.
Qed.

Lemma edts_ok_names cs cs' : map box_name cs' = map box_name cs -> edts_ok cs' = edts_ok cs.
Proof.
  unfold edts_ok. revert cs'. induction cs as [|c t IH]; intros [|c' t'] H; try discriminate; [reflexivity|].
  cbn [map] in H. injection H as H1 H2. cbn [forallb]. now rewrite H1, (IH _ H2).
Qed.

(* a plain container (moov trak mdia minf stbl edts ...) whose children print and parse *)
Lemma ppr_cont n cs cs' :
  lenN n = 4 -> lookup n leaf_table = None -> lookup n pre_table = None -> is_cont n = true ->
  bytes_eqb n n_moof = false ->
  (bytes_eqb n n_moov = true -> moov_stable_from is_trak_box [] cs = true) ->
  (bytes_eqb n n_edts = true -> edts_ok cs = true) ->
  8 + sumN (map size_box cs) < 4294967296 ->
  Forall2 ppr cs cs' -> ppr (mk_cont n cs) (mk_cont n cs').
Proof.
  intros Hn4 Hleaf Hpre Hcont Hmoof Hmoov Hedts Hfit Hcs.
  destruct (ppr_children cs cs' Hcs) as (enc & Henc & Hl & Hss & Hnn & Hbd & Hrep).
  exists (enc_hdr n (8 + sumN (map size_box cs)) ++ enc). unfold mk_cont. rewrite raw_box_cont. cbv zeta. cbn [h_name].
  rewrite (moov_order_stable n cs Hmoov), Henc, Hmoof. cbn [rcat]. split; [reflexivity|].
  split. { cbn [size_box]. unfold enc_hdr. rewrite !lenN_app, lenN_be_enc, Hn4, Hl. reflexivity. }
  split. { cbn [size_box]. now rewrite Hss. }
  split; [reflexivity|].
  split. { rewrite need_cont. unfold enc_hdr. rewrite !app_length, length_be_enc. lia. }
  intros f r2 Hn. rewrite need_cont in Hn. destruct f as [|f]; [lia|]. cbn [decode_box].
  rewrite <- app_assoc, header_rt by (try assumption; lia). cbn [h_size h_len h_name].
  replace (lenN (enc ++ r2) + 8 <? 8 + sumN (map size_box cs)) with false
    by (symmetry; apply N.ltb_ge; rewrite lenN_app; lia).
  cbn [andb]. rewrite Hleaf. unfold pre_lookup. cbn [h_name]. rewrite Hpre.
  replace (if meta_qt _ _ then None else None) with (@None ((hdr -> parser (leaf * rsvT)) * loopkind))
    by (now destruct (meta_qt _ _)).
  unfold cont_like. cbn [h_name]. rewrite Hcont. cbn [orb].
  replace (8 + sumN (map size_box cs) - 8) with (0 + sumN (map size_box cs)) by lia.
  rewrite Hrep by lia. rewrite (edts_ok_names _ _ Hnn), Hss.
  destruct (bytes_eqb n n_edts) eqn:Ee; [rewrite Hedts by reflexivity|]; cbn [negb andb]; reflexivity.
Qed.

(* a leaf whose decoder reads back what its encoder writes *)
Lemma ppr_leaf l l' d b :
  lookup (leaf_name l) leaf_table = Some d -> leaf_large l = false -> lenN (leaf_name l) = 4 ->
  8 <= size_leaf l < 4294967296 -> leaf_name l' = leaf_name l -> size_leaf l' = size_leaf l -> dflt_rsv l' = dflt_rsv l ->
  body_leaf l (dflt_rsv l) = Ok b -> lenN b + 8 = size_leaf l ->
  (forall r2, d (mkHdr (leaf_name l) (size_leaf l) 8) (b ++ r2) = Ok ((l', dflt_rsv l), r2)) ->
  ppr (mk_leaf l) (mk_leaf l').
Proof.
  intros Hd Hlarge Hn4 Hsz Hnm Hsl Hrsv Hb Hlen Hrep.
  exists (enc_hdr (leaf_name l) (size_leaf l) ++ b). unfold mk_leaf. cbn [raw_box]. unfold raw_leaf, leaf_hdr.
  rewrite Hb, Hlarge. split; [reflexivity|].
  split. { cbn [size_box]. unfold enc_hdr. rewrite !lenN_app, lenN_be_enc, Hn4. lia. }
  split; [cbn [size_box]; exact Hsl|]. split; [cbn [box_name]; exact Hnm|].
  split. { cbn [need]. unfold enc_hdr. rewrite !app_length, length_be_enc. lia. }
  intros f r2 Hn. cbn [need] in Hn. destruct f as [|f]; [lia|]. cbn [decode_box].
  rewrite <- app_assoc, header_rt by (try assumption; lia). cbn [h_size h_len h_name].
  replace (lenN (b ++ r2) + 8 <? size_leaf l) with false by (symmetry; apply N.ltb_ge; rewrite lenN_app; lia).
  cbn [andb]. rewrite Hd, Hrep, Hnm, Hsl, Hrsv. reflexivity.
Qed.

Lemma rd_many_print_P {A} (p : parser A) (e : A -> list N) (P : A -> Prop) :
  (forall a r, P a -> p (e a ++ r) = Ok (a, r)) ->
  forall l r fuel, Forall P l -> (length l <= fuel)%nat -> rd_many fuel (lenN l) p (flat_map e l ++ r) = Ok (l, r).
Proof.
  intros Hp. induction l as [|a t IH]; intros r fuel HP Hf.
  - destruct fuel; reflexivity.
  - destruct fuel as [|f]; [cbn in Hf; lia|]. cbn [rd_many flat_map]. rewrite lenN_cons.
    replace (1 + lenN t =? 0) with false by (symmetry; apply N.eqb_neq; lia).
    inversion HP as [|? ? Ha Ht]; subst.
    rewrite <- app_assoc, Hp by assumption. replace (1 + lenN t - 1) with (lenN t) by lia.
    rewrite IH by (try assumption; cbn in Hf; lia). reflexivity.
Qed.

Lemma vf_join_lt v f : vf_join v f < 256 ^ N.of_nat 4.
Proof. unfold vf_join, u32. change (256 ^ N.of_nat 4) with 4294967296. apply N.mod_lt. discriminate. Qed.
Lemma vf_split v f : vf_fits v f = true -> vf_version (vf_join v f) = v /\ vf_flags (vf_join v f) = f.
Proof.
  unfold vf_fits. intros H. apply andb_true_iff in H. destruct H as [Hv Hf]. apply N.ltb_lt in Hv, Hf.
  unfold vf_version, vf_flags, vf_join, u32. rewrite (N.mod_small (v * 16777216 + f)) by lia.
  split.
  - rewrite N.div_add_l by discriminate. rewrite N.div_small by assumption. lia.
  - rewrite N.add_comm, N.mod_add by discriminate. now apply N.mod_small.
Qed.
Lemma fitsw_lt w v : fitsw w v = true -> v < 256 ^ N.of_nat w.
Proof. unfold fitsw. apply N.ltb_lt. Qed.
Lemma forallb_Forall {A} (f : A -> bool) l : forallb f l = true -> Forall (fun a => f a = true) l.
Proof. intros H. apply Forall_forall. intros a Ha. exact (proj1 (forallb_forall f l) H a Ha). Qed.

(* a counted table of fixed-width records is read back whole: the decoders hand rd_many the number of bytes left as
   fuel, and every record takes at least one *)
Lemma rd_many_items {A} (p : parser A) (e : A -> list N) (P : A -> bool) (w : N) l r :
  1 <= w -> (forall a, lenN (e a) = w) -> (forall a r, P a = true -> p (e a ++ r) = Ok (a, r)) -> forallb P l = true ->
  rd_many (S (length (flat_map e l ++ r))) (lenN l) p (flat_map e l ++ r) = Ok (l, r).
Proof.
  intros Hw He Hp Hl. apply (rd_many_print_P p e (fun a => P a = true) Hp); [now apply forallb_Forall|].
  pose proof (lenN_flat_map_const e w l He) as Hf. unfold lenN in Hf. rewrite app_length. nia.
Qed.

Lemma rd_wr_pair p r : fitsw 4 (fst p) && fitsw 4 (snd p) = true -> rd_pair (wr_pair p ++ r) = Ok (p, r).
Proof.
  destruct p as [a b]. cbn [fst snd]. intros Hab. apply andb_true_iff in Hab. destruct Hab as [Ha Hb].
  unfold rd_pair, wr_pair, pbind. cbn [fst snd]. rewrite <- app_assoc, !rd_enc by now apply fitsw_lt. reflexivity.
Qed.

Ltac split_fits H :=
  repeat match type of H with
         | (_ && _) = true => let H1 := fresh "Hf" in apply andb_true_iff in H; destruct H as [H H1]
         end.

Lemma ppr_stts v f es : leaf_fits (LStts v f es) = true -> size_leaf (LStts v f es) < 4294967296 ->
  ppr (mk_leaf (LStts v f es)) (mk_leaf (LStts v f es)).
Proof.
  intros Hfit Hsz. cbn [leaf_fits] in Hfit. split_fits Hfit. apply N.ltb_lt in Hf0.
  destruct (vf_split _ _ Hfit) as [Hv Hfl].
  cbn [size_leaf] in Hsz. unfold u32 in Hsz. rewrite N.mod_small in Hsz by lia.
  eapply (ppr_leaf _ _ dec_stts); try reflexivity.
  - cbn [size_leaf]. unfold u32. rewrite N.mod_small by lia. lia.
  - cbn [size_leaf]. unfold u32. rewrite N.mod_small by lia.
    rewrite !lenN_app, !lenN_be_enc, (lenN_flat_map_const wr_pair 8) by apply lenN_wr_pair. lia.
  - intros r2. unfold dec_stts, pbind. cbn [h_size size_leaf]. unfold u32. rewrite (N.mod_small (lenN es)) by lia.
    rewrite <- !app_assoc. rewrite rd_enc by apply vf_join_lt.
    rewrite rd_enc by (change (256 ^ N.of_nat 4) with 4294967296; lia).
    rewrite N.eqb_refl. cbn [negb].
    rewrite (rd_many_items rd_pair wr_pair (fun p => fitsw 4 (fst p) && fitsw 4 (snd p)) 8)
      by (lia || apply lenN_wr_pair || apply rd_wr_pair || assumption).
    unfold pret. now rewrite Hv, Hfl.
Qed.

Lemma u32_small x : x < 4294967296 -> u32 x = x.
Proof. intros H. unfold u32. now apply N.mod_small. Qed.

Lemma ppr_tab n w v f items : leaf_fits (LTab n w v f items) = true -> size_leaf (LTab n w v f items) < 4294967296 ->
  ppr (mk_leaf (LTab n w v f items)) (mk_leaf (LTab n w v f items)).
Proof.
  intros Hfit Hsz. cbn [leaf_fits] in Hfit. split_fits Hfit. apply N.ltb_lt in Hf1.
  destruct (vf_split _ _ Hfit) as [Hv Hfl].
  cbn [size_leaf] in Hsz. rewrite u32_small in Hsz by assumption.
  assert (Hnw : (n = n_stco /\ w = 4%nat) \/ (n = n_stss /\ w = 4%nat) \/ (n = n_co64 /\ w = 8%nat)).
  { apply orb_true_iff in Hf. destruct Hf as [Hf|Hf]; [apply orb_true_iff in Hf; destruct Hf as [Hf|Hf]|];
      apply andb_true_iff in Hf; destruct Hf as [Ha Hb]; apply bytes_eqb_eq in Ha; apply Nat.eqb_eq in Hb; auto. }
  assert (Hw : (1 <= w)%nat) by (destruct Hnw as [[_ ->]|[[_ ->]|[_ ->]]]; lia).
  assert (Hlk : lookup n leaf_table = Some (dec_tab w)) by (destruct Hnw as [[-> ->]|[[-> ->]|[-> ->]]]; reflexivity).
  assert (Hn4 : lenN n = 4) by (destruct Hnw as [[-> _]|[[-> _]|[-> _]]]; reflexivity).
  eapply (ppr_leaf _ _ (dec_tab w)); try reflexivity; try assumption.
  - cbn [size_leaf]. rewrite u32_small by assumption. lia.
  - cbn [size_leaf]. rewrite u32_small by assumption.
    rewrite !lenN_app, !lenN_be_enc, (lenN_flat_map_const (be_enc w) (N.of_nat w)) by (intros; apply lenN_be_enc). lia.
  - intros r2. unfold dec_tab, pbind. cbn [h_size h_name size_leaf leaf_name]. rewrite u32_small by assumption.
    rewrite <- !app_assoc. rewrite rd_enc by apply vf_join_lt.
    rewrite rd_enc by (change (256 ^ N.of_nat 4) with 4294967296; lia).
    rewrite N.eqb_refl. cbn [negb].
    rewrite (rd_many_items (rd w) (be_enc w) (fitsw w) (N.of_nat w))
      by (lia || apply lenN_be_enc || (intros a r Ha; apply rd_enc, fitsw_lt, Ha) || assumption).
    unfold pret. now rewrite Hv, Hfl.
Qed.

Lemma ppr_sdtp v f es : leaf_fits (LSdtp v f es) = true -> size_leaf (LSdtp v f es) < 4294967296 ->
  ppr (mk_leaf (LSdtp v f es)) (mk_leaf (LSdtp v f es)).
Proof.
  intros Hfit Hsz. cbn [leaf_fits] in Hfit. destruct (vf_split _ _ Hfit) as [Hv Hfl]. cbn [size_leaf] in Hsz.
  eapply (ppr_leaf _ _ dec_sdtp); try reflexivity.
  - cbn [size_leaf]. lia.
  - cbn [size_leaf]. rewrite !lenN_app, !lenN_be_enc. lia.
  - intros r2. unfold dec_sdtp, pbind, payload_len. cbn [h_size h_len size_leaf].
    rewrite <- !app_assoc. rewrite rd_enc by apply vf_join_lt.
    replace (12 + lenN es - 8 <? 4) with false by (symmetry; apply N.ltb_ge; lia).
    replace (12 + lenN es - 8 - 4) with (lenN es) by lia. rewrite rdB_app. unfold pret. now rewrite Hv, Hfl.
Qed.

Lemma ppr_stsz v f uni num ss : leaf_fits (LStsz v f uni num ss) = true -> size_leaf (LStsz v f uni num ss) < 4294967296 ->
  ppr (mk_leaf (LStsz v f uni num ss)) (mk_leaf (LStsz v f uni num ss)).
Proof.
  intros Hfit Hsz. cbn [leaf_fits] in Hfit. split_fits Hfit.
  destruct (vf_split _ _ Hfit) as [Hv Hfl]. apply fitsw_lt in Hf1, Hf2. cbn [size_leaf] in Hsz.
  assert (Hbody : body_leaf (LStsz v f uni num ss) (dflt_rsv (LStsz v f uni num ss)) =
                  Ok (be_enc 4 (vf_join v f) ++ be_enc 4 uni ++ be_enc 4 num ++ flat_map (be_enc 4) ss)).
  { cbn [body_leaf]. destruct (lenN ss =? 0) eqn:E0.
    - apply N.eqb_eq in E0. destruct ss; [|rewrite lenN_cons in E0; lia]. cbn [flat_map]. now rewrite app_nil_r.
    - destruct (uni =? 0); [apply N.eqb_eq in Hf0; now rewrite Hf0|discriminate]. }
  assert (Hlen : lenN (flat_map (be_enc 4) ss) = 4 * lenN ss)
    by (apply lenN_flat_map_const; intros; apply lenN_be_enc).
  eapply (ppr_leaf _ _ dec_stsz (be_enc 4 (vf_join v f) ++ be_enc 4 uni ++ be_enc 4 num ++ flat_map (be_enc 4) ss));
    try exact Hbody; try reflexivity.
  - cbn [size_leaf]. destruct (0 <? uni); lia.
  - cbn [size_leaf]. rewrite !lenN_app, !lenN_be_enc, Hlen.
    destruct (uni =? 0) eqn:Eu; apply N.eqb_eq in Hf0.
    + apply N.eqb_eq in Eu. subst uni. cbn [N.ltb N.compare]. lia.
    + apply N.eqb_neq in Eu. replace (0 <? uni) with true by (symmetry; apply N.ltb_lt; lia). lia.
  - intros r2. unfold dec_stsz, pbind. cbn [h_size size_leaf].
    rewrite <- !app_assoc. rewrite rd_enc by apply vf_join_lt. rewrite !rd_enc by assumption.
    rewrite N.eqb_refl. cbn [negb].
    destruct (uni =? 0) eqn:Eu; apply N.eqb_eq in Hf0.
    + rewrite <- Hf0. rewrite (rd_many_items (rd 4) (be_enc 4) (fitsw 4) 4)
        by (lia || apply lenN_be_enc || (intros a r Ha; apply rd_enc, fitsw_lt, Ha) || assumption).
      unfold pret. now rewrite Hv, Hfl.
    + destruct ss; [|rewrite lenN_cons in Hf0; lia]. cbn [flat_map app]. unfold pret. now rewrite Hv, Hfl.
Qed.

(* ctts: the (count, offset) pairs CttsBox.Encode writes *)
Fixpoint ctts_pairs (ends offs : list N) : list (N * N) :=
  match offs, ends with
  | o :: ot, e0 :: ((e1 :: _) as et) => (u32 (e1 + 4294967296 - e0), o) :: ctts_pairs et ot
  | _, _ => []
  end.
Lemma wr_ctts_pairs offs : forall ends, wr_ctts ends offs = flat_map wr_pair (ctts_pairs ends offs).
Proof.
  induction offs as [|o ot IH]; intros ends; [destruct ends; reflexivity|].
  destruct ends as [|e0 [|e1 et]]; try reflexivity.
  change (wr_ctts (e0 :: e1 :: et) (o :: ot))
    with (be_enc 4 (u32 (e1 + 4294967296 - e0)) ++ be_enc 4 o ++ wr_ctts (e1 :: et) ot).
  change (ctts_pairs (e0 :: e1 :: et) (o :: ot)) with ((u32 (e1 + 4294967296 - e0), o) :: ctts_pairs (e1 :: et) ot).
  cbn [flat_map]. unfold wr_pair at 1. cbn [fst snd]. rewrite IH. now rewrite <- app_assoc.
Qed.
Lemma ctts_pairs_spec offs : forall e0 et, lenN et = lenN offs -> forallb (fitsw 4) (e0 :: et) = true ->
  C01Model.ctts_ends e0 (ctts_pairs (e0 :: et) offs) = et /\ map snd (ctts_pairs (e0 :: et) offs) = offs /\
  lenN (ctts_pairs (e0 :: et) offs) = lenN offs.
Proof.
  induction offs as [|o ot IH]; intros e0 et Hl Hf.
  - destruct et; [now repeat split|unfold lenN in Hl; cbn [length] in Hl; lia].
  - destruct et as [|e1 et]; [unfold lenN in Hl; cbn [length] in Hl; lia|].
    rewrite !lenN_cons in Hl. cbn [forallb] in Hf. apply andb_true_iff in Hf. destruct Hf as [H0 Hf].
    pose proof Hf as Hf'. cbn [forallb] in Hf'. apply andb_true_iff in Hf'. destruct Hf' as [H1 _].
    apply fitsw_lt in H0, H1. change (256 ^ N.of_nat 4) with 4294967296 in H0, H1.
    destruct (IH e1 et ltac:(lia) Hf) as (Ha & Hb & Hc).
    change (ctts_pairs (e0 :: e1 :: et) (o :: ot)) with ((u32 (e1 + 4294967296 - e0), o) :: ctts_pairs (e1 :: et) ot).
    cbn [C01Model.ctts_ends map snd].
    assert (He : u32 (e0 + u32 (e1 + 4294967296 - e0)) = e1).
    { unfold u32. destruct (N.le_gt_cases e0 e1).
      - replace (e1 + 4294967296 - e0) with ((e1 - e0) + 1 * 4294967296) by lia.
        rewrite N.mod_add by discriminate. rewrite (N.mod_small (e1 - e0)) by lia.
        replace (e0 + (e1 - e0)) with e1 by lia. now apply N.mod_small.
      - rewrite (N.mod_small (e1 + 4294967296 - e0)) by lia.
        replace (e0 + (e1 + 4294967296 - e0)) with (e1 + 1 * 4294967296) by lia.
        rewrite N.mod_add by discriminate. now apply N.mod_small. }
    rewrite He, Ha, Hb. repeat split. rewrite !lenN_cons. lia.
Qed.

Lemma ctts_pairs_count_fits offs : forall es a b, In (a, b) (ctts_pairs es offs) -> fitsw 4 a = true.
Proof.
  induction offs as [|o ot IH]; intros es a b Hin; destruct es as [|x [|y es]]; try (now destruct Hin).
  change (ctts_pairs (x :: y :: es) (o :: ot)) with ((u32 (y + 4294967296 - x), o) :: ctts_pairs (y :: es) ot) in Hin.
  destruct Hin as [Hin|Hin].
  - injection Hin as <- _. unfold fitsw, u32. apply N.ltb_lt. change (256 ^ N.of_nat 4) with 4294967296.
    apply N.mod_lt. discriminate.
  - exact (IH _ _ _ Hin).
Qed.

Lemma ppr_ctts v f ends offs : leaf_fits (LCtts v f ends offs) = true -> size_leaf (LCtts v f ends offs) < 4294967296 ->
  ppr (mk_leaf (LCtts v f ends offs)) (mk_leaf (LCtts v f ends offs)).
Proof.
  intros Hfit Hsz. cbn [leaf_fits] in Hfit. split_fits Hfit. apply N.ltb_lt in Hf3. apply N.eqb_eq in Hf2, Hf1.
  destruct (vf_split _ _ Hfit) as [Hv Hfl].
  cbn [size_leaf] in Hsz. rewrite u32_small in Hsz by assumption.
  destruct ends as [|e0 et]; [cbn in Hf1; discriminate|]. cbn [hd] in Hf1. subst e0.
  rewrite lenN_cons in Hf2.
  destruct (ctts_pairs_spec offs 0 et ltac:(lia) Hf0) as (Ha & Hb & Hc).
  assert (Hbody : body_leaf (LCtts v f (0 :: et) offs) (dflt_rsv (LCtts v f (0 :: et) offs)) =
                  Ok (be_enc 4 (vf_join v f) ++ be_enc 4 (lenN offs) ++ flat_map wr_pair (ctts_pairs (0 :: et) offs))).
  { cbn [body_leaf]. rewrite lenN_cons. replace (1 + lenN et =? 1 + lenN offs) with true by (symmetry; apply N.eqb_eq; lia).
    cbn [negb]. now rewrite wr_ctts_pairs. }
  eapply (ppr_leaf _ _ dec_ctts _); try exact Hbody; try reflexivity.
  - cbn [size_leaf]. rewrite u32_small by assumption. lia.
  - cbn [size_leaf]. rewrite u32_small by assumption.
    rewrite !lenN_app, !lenN_be_enc, (lenN_flat_map_const wr_pair 8) by apply lenN_wr_pair. rewrite Hc. lia.
  - intros r2. unfold dec_ctts, pbind. cbn [h_size size_leaf]. rewrite u32_small by assumption.
    rewrite <- !app_assoc. rewrite rd_enc by apply vf_join_lt.
    rewrite rd_enc by (change (256 ^ N.of_nat 4) with 4294967296; lia).
    rewrite N.eqb_refl. cbn [negb]. rewrite <- Hc.
    rewrite (rd_many_items rd_pair wr_pair (fun p => fitsw 4 (fst p) && fitsw 4 (snd p)) 8);
      [|lia|apply lenN_wr_pair|apply rd_wr_pair|].
    + unfold pret. now rewrite Hv, Hfl, Ha, Hb.
    + apply forallb_forall. intros [a b] Hin. cbn [fst snd]. apply andb_true_iff. split.
      * exact (ctts_pairs_count_fits _ _ _ _ Hin).
      * assert (Hin' : In b (map snd (ctts_pairs (0 :: et) offs))) by (apply in_map_iff; now exists (a, b)).
        rewrite Hb in Hin'. exact (proj1 (forallb_forall _ _) Hf b Hin').
Qed.

Lemma ppr_elst v f es : leaf_fits (LElst v f es) = true -> size_leaf (LElst v f es) < 4294967296 ->
  ppr (mk_leaf (LElst v f es)) (mk_leaf (LElst v f es)).
Proof.
  intros Hfit Hsz. cbn [leaf_fits] in Hfit. split_fits Hfit. apply N.ltb_lt in Hf0. apply N.leb_le in Hf1.
  destruct (vf_split _ _ Hfit) as [Hv Hfl].
  cbn [size_leaf] in Hsz. rewrite u32_small in Hsz by assumption.
  set (w := if v =? 1 then 8%nat else 4%nat) in *.
  assert (Hww : forall e, lenN (wr_elst w e) = (if v =? 1 then 20 else 12)).
  { intros e. rewrite lenN_wr_elst. unfold w. destruct (v =? 1); reflexivity. }
  eapply (ppr_leaf _ _ dec_elst); try reflexivity.
  - cbn [size_leaf]. rewrite u32_small by assumption. lia.
  - cbn [size_leaf]. rewrite u32_small by assumption. fold w.
    rewrite !lenN_app, !lenN_be_enc, (lenN_flat_map_const (wr_elst w) _ es Hww). lia.
  - intros r2. unfold dec_elst, pbind. cbn [h_size size_leaf]. rewrite u32_small by assumption.
    rewrite <- !app_assoc. rewrite rd_enc by apply vf_join_lt.
    rewrite rd_enc by (change (256 ^ N.of_nat 4) with 4294967296; lia).
    cbv zeta. rewrite Hv, Hfl. rewrite N.eqb_refl. cbn [negb].
    replace (1 <? v) with false by (symmetry; apply N.ltb_ge; lia). fold w.
    rewrite (rd_many_items (rd_elst w) (wr_elst w)
               (fun e => match e with (d, t, ri, rf) => fitsw w d && fitsw w t && fitsw 2 ri && fitsw 2 rf end)
               (if v =? 1 then 20 else 12)); [|destruct (v =? 1); lia|exact Hww| |assumption].
    + reflexivity.
    + intros [[[d t] ri] rf] r He. split_fits He.
      unfold rd_elst, wr_elst, pbind. rewrite <- !app_assoc. rewrite !rd_enc by now apply fitsw_lt. reflexivity.
Qed.

(* stsc *)
Lemma wr_stsc_raw es single : forall ids, wr_stsc es single ids = flat_map wr_triple (stsc_raw es single ids).
Proof.
  induction es as [|[fc sp] t IH]; intros ids; [reflexivity|].
  cbn [wr_stsc stsc_raw flat_map]. unfold wr_triple at 1. cbn [fst snd]. rewrite IH. now rewrite <- !app_assoc.
Qed.
Lemma stsc_raw_fst es single : forall ids, map fst (stsc_raw es single ids) = es.
Proof. induction es as [|[fc sp] t IH]; intros ids; [reflexivity|]. cbn [stsc_raw map fst]. now rewrite IH. Qed.
Lemma stsc_raw_len es single : forall ids, lenN (stsc_raw es single ids) = lenN es.
Proof. induction es as [|[fc sp] t IH]; intros ids; [reflexivity|]. cbn [stsc_raw]. now rewrite !lenN_cons, IH. Qed.

Lemma ppr_stsc v f es single ids : leaf_fits (LStsc v f es single ids) = true ->
  size_leaf (LStsc v f es single ids) < 4294967296 ->
  ppr (mk_leaf (LStsc v f es single ids)) (mk_leaf (leaf_as_decoded (LStsc v f es single ids))).
Proof.
  intros Hfit Hsz. cbn [leaf_fits] in Hfit. split_fits Hfit. apply N.ltb_lt in Hf3. apply negb_true_iff in Hf2.
  destruct (vf_split _ _ Hfit) as [Hv Hfl]. cbn [size_leaf] in Hsz.
  cbn [leaf_as_decoded].
  destruct (stsc_ids 0 0 [] (stsc_written es single ids)) as [[s' i']|] eqn:Eids; [|discriminate].
  assert (Hbody : body_leaf (LStsc v f es single ids) (dflt_rsv (LStsc v f es single ids)) =
                  Ok (be_enc 4 (vf_join v f) ++ be_enc 4 (lenN es) ++ flat_map wr_triple (stsc_raw es single ids))).
  { cbn [body_leaf]. rewrite Hf2. now rewrite wr_stsc_raw. }
  eapply (ppr_leaf _ _ dec_stsc _); try exact Hbody; try reflexivity.
  - cbn [size_leaf]. lia.
  - cbn [size_leaf]. rewrite !lenN_app, !lenN_be_enc, (lenN_flat_map_const wr_triple 12) by apply lenN_wr_triple.
    rewrite stsc_raw_len. lia.
  - intros r2. unfold dec_stsc, pbind. cbn [h_size size_leaf].
    rewrite <- !app_assoc. rewrite rd_enc by apply vf_join_lt.
    rewrite rd_enc by (change (256 ^ N.of_nat 4) with 4294967296; lia).
    rewrite N.eqb_refl. cbn [negb]. rewrite <- (stsc_raw_len es single ids).
    rewrite (rd_many_items rd_triple wr_triple
               (fun t => fitsw 4 (fst (fst t)) && fitsw 4 (snd (fst t)) && fitsw 4 (snd t)) 12);
      [|lia|apply lenN_wr_triple| |].
    + fold (stsc_written es single ids). rewrite Eids. unfold pret. now rewrite Hv, Hfl, stsc_raw_fst.
    + intros [[a b] c] r Habc. cbn [fst snd] in Habc. split_fits Habc.
      unfold rd_triple, wr_triple, pbind. cbn [fst snd]. rewrite <- !app_assoc.
      rewrite !rd_enc by now apply fitsw_lt. reflexivity.
    + apply forallb_forall. intros [[a b] c] Hin. cbn [fst snd].
      assert (H1 : In (a, b) es) by (rewrite <- (stsc_raw_fst es single ids); apply in_map_iff; now exists (a, b, c)).
      assert (H2 : In c (stsc_written es single ids)) by (apply in_map_iff; now exists (a, b, c)).
      pose proof (proj1 (forallb_forall _ _) Hf1 _ H1) as Hab. cbn [fst snd] in Hab.
      pose proof (proj1 (forallb_forall _ _) Hf0 _ H2) as Hc. now rewrite Hab, Hc.
Qed.

(* mvhd / tkhd: the reserved places hold the encoder's values *)
Lemma ppr_mvhd v f ct mt ts du rate vol nt : leaf_fits (LMvhd v f ct mt ts du rate vol nt) = true ->
  ppr (mk_leaf (LMvhd v f ct mt ts du rate vol nt)) (mk_leaf (LMvhd v f ct mt ts du rate vol nt)).
Proof.
  intros Hfit. cbn [leaf_fits] in Hfit. split_fits Hfit. destruct (vf_split _ _ Hfit) as [Hv Hfl].
  eapply (ppr_leaf _ _ dec_mvhd); try reflexivity.
  - cbn [size_leaf]. destruct (v =? 1); lia.
  - cbn [size_leaf body_leaf dflt_rsv chunk nth]. destruct (v =? 1); lensolve.
  - intros r2. unfold dec_mvhd, pbind. cbn [chunk nth dflt_rsv]. rewrite <- !app_assoc.
    rewrite rd_enc by apply vf_join_lt. cbv zeta. rewrite Hv, Hfl.
    destruct (v =? 1); apply fitsw_lt in Hf, Hf0, Hf1, Hf2, Hf3, Hf4, Hf5;
      rewrite !rd_enc by assumption;
      rewrite (rdB_lit (zeros 10) 10) by apply lenN_zeros; rewrite (rdB_lit unity_matrix 36) by apply lenN_unity;
      rewrite (rdB_lit (zeros 24) 24) by apply lenN_zeros; rewrite rd_enc by assumption; reflexivity.
Qed.

Lemma ppr_tkhd v f ct mt tid du layer ag vol wd ht : leaf_fits (LTkhd v f ct mt tid du layer ag vol wd ht) = true ->
  ppr (mk_leaf (LTkhd v f ct mt tid du layer ag vol wd ht)) (mk_leaf (LTkhd v f ct mt tid du layer ag vol wd ht)).
Proof.
  intros Hfit. cbn [leaf_fits] in Hfit. split_fits Hfit. destruct (vf_split _ _ Hfit) as [Hv Hfl].
  eapply (ppr_leaf _ _ dec_tkhd); try reflexivity.
  - cbn [size_leaf]. destruct (v =? 1); lia.
  - cbn [size_leaf body_leaf dflt_rsv chunk nth]. destruct (v =? 1); lensolve.
  - intros r2. unfold dec_tkhd, pbind. cbn [chunk nth dflt_rsv]. rewrite <- !app_assoc.
    rewrite rd_enc by apply vf_join_lt. cbv zeta. rewrite Hv, Hfl.
    destruct (v =? 1); apply fitsw_lt in Hf, Hf0, Hf1, Hf2, Hf3, Hf4, Hf5, Hf6, Hf7;
      rewrite !rd_enc by assumption;
      rewrite (rdB_lit (zeros 4) 4) by apply lenN_zeros; rewrite rd_enc by assumption;
      rewrite (rdB_lit (zeros 8) 8) by apply lenN_zeros; rewrite !rd_enc by assumption;
      rewrite (rdB_lit (zeros 2) 2) by apply lenN_zeros; rewrite (rdB_lit unity_matrix 36) by apply lenN_unity;
      rewrite !rd_enc by assumption; reflexivity.
Qed.

Definition rebuilt (l : leaf) : bool :=
  match l with
  | LStts _ _ _ | LCtts _ _ _ _ | LStsc _ _ _ _ _ | LStsz _ _ _ _ _ | LTab _ _ _ _ _ | LSdtp _ _ _ | LElst _ _ _
  | LMvhd _ _ _ _ _ _ _ _ _ | LTkhd _ _ _ _ _ _ _ _ _ _ _ => true
  | _ => false
  end.
Lemma ppr_rebuilt l : rebuilt l = true -> leaf_fits l = true -> size_leaf l < 4294967296 ->
  ppr (mk_leaf l) (mk_leaf (leaf_as_decoded l)).
Proof.
  destruct l; try discriminate; intros _ Hf Hs.
  - now apply ppr_mvhd. - now apply ppr_tkhd. - now apply ppr_stts. - now apply ppr_stsc. - now apply ppr_stsz.
  - now apply ppr_tab. - now apply ppr_sdtp. - now apply ppr_ctts. - now apply ppr_elst.
Qed.

Definition dx (t : mbox) : Prop :=
  exists f bs rest, bytes_ok bs = true /\ decode_box f bs = Ok (t, rest) /\ exact_box t = true.

Lemma dx_pp t : dx t -> pp t.
Proof. intros (f & bs & rest & Hok & H & Hex). exact (pp_decoded f bs t rest Hok H Hex). Qed.

Lemma dx_of_children f : forall tgt pos used bs cs r, bytes_ok bs = true ->
  decode_children f tgt pos used bs = Ok (cs, r) -> forallb exact_box cs = true -> Forall dx cs.
Proof.
  induction f as [|f IH]; intros tgt pos used bs cs r Hok H Hex; [discriminate|].
  cbn [decode_children] in H.
  destruct (tgt <? pos); try discriminate.
  destruct (pos =? tgt); [injection H as <- <-; constructor|].
  destruct (decode_box f bs) as [[c r1]| | |] eqn:Eb; try discriminate.
  destruct (negb (pos + size_box c =? used + (lenN bs - lenN r1))); try discriminate.
  destruct (decode_children f tgt (pos + size_box c) (used + (lenN bs - lenN r1)) r1) as [[cs' r']| | |] eqn:Ec;
    try discriminate.
  injection H as <- <-. cbn [forallb] in Hex. apply andb_true_iff in Hex. destruct Hex as [Hc Hcs].
  destruct (proj1 (tree_both f) _ _ _ Hok Eb Hc) as (_ & _ & _ & Hokr).
  constructor; [now exists f, bs, r1|]. exact (IH _ _ _ _ _ _ Hokr Ec Hcs).
Qed.

Lemma dx_cont h cs : dx (MCont h cs) ->
  Forall dx cs /\ (bytes_eqb (h_name h) n_edts = true -> edts_ok cs = true) /\
  (bytes_eqb (h_name h) n_moov = true -> moov_stable_from is_trak_box [] cs = true).
Proof.
  intros (f & bs & rest & Hok & H & Hex). destruct f as [|f]; [discriminate|].
  apply decode_box_S in H. destruct H as (h0 & r0 & Eh & _ & D).
  destruct (dec_hdr_spec _ _ _ Hok Eh) as (Hokr0 & _). destruct (exact_cont _ _ Hex) as (_ & Hcs).
  inversion D as [| |cs0 r' _ _ _ Ec Ee|]; subst.
  split; [exact (dx_of_children f _ _ _ _ _ _ Hokr0 Ec Hcs)|]. split; intros Hn.
  - rewrite Hn in Ee. now apply negb_false_iff in Ee.
  - cbn [exact_box] in Hex. rewrite Hn, !andb_true_iff in Hex. now destruct Hex as [[_ Hmoov] _].
Qed.

Notation vI := (fun l : leaf => l).
Notation vU := (fun t : mbox => t).

Lemma named_name n t : named n t = true -> box_name t = n.
Proof. unfold named. apply bytes_eqb_eq. Qed.

Lemma moov_stable_names cs cs' : map box_name cs' = map box_name cs ->
  moov_stable_from is_trak_box [] cs' = moov_stable_from is_trak_box [] cs.
Proof.
  intros Hn. pose (g := fun c : mbox => (is_trak_box c, tt)).
  rewrite <- (moov_stable_map is_trak_box g (fun a => eq_refl) cs' []).
  rewrite <- (moov_stable_map is_trak_box g (fun a => eq_refl) cs []).
  f_equal. unfold g, is_trak_box.
  rewrite <- (map_map box_name (fun n => (bytes_eqb n n_trak, tt)) cs'), Hn, map_map. reflexivity.
Qed.

(* The crop is written twice in C10TreeModel: g on the boxes in memory, g' on what a decoder makes of their bytes.
   rw_on p g g': on a decoded exact box c of the kind p, g keeps the name, and g c prints and parses to g' c when its
   numbers fit.  rws: the same for a rewriting of the children of a box. *)
Definition rw_on (p : mbox -> bool) (g g' : mbox -> mbox) : Prop :=
  forall c, p c = true -> dx c ->
    box_name (g c) = box_name c /\ (enc_fits (g c) = true -> tree_fits (g c) = true -> ppr (g c) (g' c)).
Notation rw := (rw_on (fun _ => true)).
Definition rws (g g' : list mbox -> list mbox) : Prop :=
  forall cs, Forall dx cs ->
    map box_name (g cs) = map box_name cs /\
    (forallb enc_fits (g cs) = true -> forallb tree_fits (g cs) = true -> Forall2 ppr (g cs) (g' cs)).

Lemma rw_id : rw (fun c => c) norm_box.
Proof. intros c _ Hdx. split; [reflexivity|]. intros _ _. exact (dx_pp _ Hdx). Qed.

Lemma rw_weaken p g g' : rw g g' -> rw_on p g g'.
Proof. intros H c _. exact (H c eq_refl). Qed.

Lemma rw_if p F F' G G' : rw_on p F F' -> rw G G' ->
  rw (fun c => if p c then F c else G c) (fun c => if p c then F' c else G' c).
Proof. intros HF HG c _ Hdx. destruct (p c) eqn:E; [exact (HF c E Hdx)|exact (HG c eq_refl Hdx)]. Qed.

Lemma rws_step (c gc gc' : mbox) (t gt gt' : list mbox) :
  box_name gc = box_name c /\ (enc_fits gc = true -> tree_fits gc = true -> ppr gc gc') ->
  map box_name gt = map box_name t /\
  (forallb enc_fits gt = true -> forallb tree_fits gt = true -> Forall2 ppr gt gt') ->
  map box_name (gc :: gt) = map box_name (c :: t) /\
  (forallb enc_fits (gc :: gt) = true -> forallb tree_fits (gc :: gt) = true -> Forall2 ppr (gc :: gt) (gc' :: gt')).
Proof.
  intros [Hn Hp] [Hns Hps]. cbn [map forallb]. split; [now rewrite Hn, Hns|].
  intros He Ht. apply andb_true_iff in He, Ht. destruct He, Ht. constructor; [now apply Hp|now apply Hps].
Qed.

Lemma rws_map g g' : rw g g' -> rws (map g) (map g').
Proof.
  intros Hg cs Hdx. induction Hdx as [|c t Hc _ IH]; [split; [reflexivity|constructor]|].
  exact (rws_step _ _ _ _ _ _ (Hg c eq_refl Hc) IH).
Qed.

Definition six_names : list (list N) := [n_moov; n_trak; n_mdia; n_minf; n_stbl; n_edts].

(* a container of one of the six kinds whose children are rewritten: re-sized by mk_cont, it is a plain container again *)
Lemma rw_cont n g g' : In n six_names -> rws g g' -> rw_on (named n) (upd_cont vU g) (upd_cont norm_box g').
Proof.
  intros Hin Hg t Hnm Hdx. split; [destruct t; reflexivity|]. intros He Ht.
  destruct t as [h l r|h cs|h p|h l r cs]; try exact (dx_pp _ Hdx).
  apply named_name in Hnm. cbn [box_name] in Hnm. cbn [upd_cont] in *. rewrite Hnm in *.
  destruct (dx_cont h cs Hdx) as (Hcs & Hedts & Hmoov). rewrite Hnm in Hedts, Hmoov.
  unfold mk_cont in He, Ht. cbn [enc_fits tree_fits] in He, Ht.
  apply andb_true_iff in He. destruct He as [Hsz He]. apply N.ltb_lt in Hsz.
  destruct (Hg cs Hcs) as [Hnames Hp]. specialize (Hp He Ht).
  assert (Hside : lenN n = 4 /\ lookup n leaf_table = None /\ lookup n pre_table = None /\ is_cont n = true /\
                  bytes_eqb n n_moof = false).
  { unfold six_names in Hin. cbn [In] in Hin.
    destruct Hin as [<-|[<-|[<-|[<-|[<-|[<-|[]]]]]]]; repeat split; reflexivity. }
  destruct Hside as (H4 & Hl & Hpre & Hc & Hm).
  apply ppr_cont; try assumption.
  - intros Hn. rewrite (moov_stable_names cs (g cs) Hnames). now apply Hmoov.
  - intros Hn. rewrite (edts_ok_names cs (g cs) Hnames). now apply Hedts.
Qed.

(* the leaves: a rebuilt one by ppr_rebuilt, an untouched one as it was decoded *)
Lemma rw_leaf l : rebuilt l = true -> leaf_large l = false ->
  box_name (mk_leaf l) = leaf_name l /\
  (enc_fits (mk_leaf l) = true -> tree_fits (mk_leaf l) = true -> ppr (mk_leaf l) (mk_leaf (leaf_as_decoded l))).
Proof.
  intros Hr Hl. split; [reflexivity|]. intros He Ht. apply (ppr_rebuilt l Hr Ht).
  unfold mk_leaf in He. cbn [enc_fits] in He. rewrite Hl in He. now apply N.ltb_lt.
Qed.

Lemma rw_put_table tb : rw (put_table vI vU tb) (put_table leaf_as_decoded norm_box tb).
Proof.
  intros c _ Hdx. destruct c as [h l r|h cs|h p|h l r cs]; try exact (rw_id _ eq_refl Hdx).
  destruct l; try exact (rw_id _ eq_refl Hdx); cbn [put_table];
    try match goal with |- context [match ?o with Some _ => _ | None => _ end] =>
          destruct o; [|exact (rw_id _ eq_refl Hdx)] end;
    apply rw_leaf; reflexivity.
Qed.

Lemma rw_set_tkhd nd : rw (set_tkhd_dur vI vU nd) (set_tkhd_dur leaf_as_decoded norm_box nd).
Proof.
  intros c _ Hdx. destruct c as [h l r|h cs|h p|h l r cs]; try exact (rw_id _ eq_refl Hdx).
  destruct l; try exact (rw_id _ eq_refl Hdx). apply rw_leaf; reflexivity.
Qed.

Lemma rw_set_mvhd nd : rw (set_mvhd_dur vI vU nd) (set_mvhd_dur leaf_as_decoded norm_box nd).
Proof.
  intros c _ Hdx. destruct c as [h l r|h cs|h p|h l r cs]; try exact (rw_id _ eq_refl Hdx).
  destruct l; try exact (rw_id _ eq_refl Hdx). apply rw_leaf; reflexivity.
Qed.

Lemma rws_put_elsts gs : rws (put_elsts vI vU gs) (put_elsts leaf_as_decoded norm_box gs).
Proof.
  intros cs Hdx. revert gs. induction Hdx as [|c t Hc _ IH]; intros gs; [split; [reflexivity|constructor]|].
  destruct c as [h l r|h cs|h p|h l r cs]; try exact (rws_step _ _ _ _ _ _ (rw_id _ eq_refl Hc) (IH gs)).
  destruct l; try exact (rws_step _ _ _ _ _ _ (rw_id _ eq_refl Hc) (IH gs)).
  destruct gs as [|g gt]; [exact (rws_step _ _ _ _ _ _ (rw_id _ eq_refl Hc) (IH []))|].
  apply rws_step; [apply rw_leaf; reflexivity|exact (IH gt)].
Qed.

Lemma in_six n : In n six_names <-> (n = n_moov \/ n = n_trak \/ n = n_mdia \/ n = n_minf \/ n = n_stbl \/ n = n_edts).
Proof. unfold six_names. cbn [In]. intuition. Qed.

(* stbl -> minf -> mdia -> trak -> moov: each level rewrites the one child that leads to the tables *)
Lemma rw_stbl tb : rw_on (named n_stbl) (upd_cont vU (map (put_table vI vU tb)))
                         (upd_cont norm_box (map (put_table leaf_as_decoded norm_box tb))).
Proof. apply rw_cont; [apply in_six; tauto|]. exact (rws_map _ _ (rw_put_table tb)). Qed.

Definition minf_enc tb := upd_cont vU (upd_named vU n_stbl (upd_cont vU (map (put_table vI vU tb)))).
Definition minf_dec tb := upd_cont norm_box (upd_named norm_box n_stbl (upd_cont norm_box (map (put_table leaf_as_decoded norm_box tb)))).
Lemma rw_minf tb : rw_on (named n_minf) (minf_enc tb) (minf_dec tb).
Proof. apply rw_cont; [apply in_six; tauto|]. exact (rws_map _ _ (rw_if _ _ _ _ _ (rw_stbl tb) rw_id)). Qed.

Definition mdia_enc tb := upd_cont vU (upd_named vU n_minf (minf_enc tb)).
Definition mdia_dec tb := upd_cont norm_box (upd_named norm_box n_minf (minf_dec tb)).
Lemma rw_mdia tb : rw_on (named n_mdia) (mdia_enc tb) (mdia_dec tb).
Proof. apply rw_cont; [apply in_six; tauto|]. exact (rws_map _ _ (rw_if _ _ _ _ _ (rw_minf tb) rw_id)). Qed.

Lemma upd_trak_enc tb nd md ed t :
  upd_trak vI vU tb (nd, md, ed) t =
  upd_cont vU (map (fun c => if named n_tkhd c then set_tkhd_dur vI vU nd c
                             else if named n_edts c then upd_cont vU (put_elsts vI vU (match ed with Some gs => gs | None => [] end)) c
                             else if named n_mdia c then mdia_enc tb c else c)) t.
Proof. reflexivity. Qed.

Lemma rw_trak tb x : rw_on (named n_trak) (upd_trak vI vU tb x) (upd_trak leaf_as_decoded norm_box tb x).
Proof.
  destruct x as [[nd md] ed]. apply (rw_cont n_trak); [apply in_six; tauto|]. apply rws_map.
  apply rw_if; [exact (rw_weaken _ _ _ (rw_set_tkhd nd))|].
  apply rw_if; [apply rw_cont; [apply in_six; tauto|apply rws_put_elsts]|].
  exact (rw_if _ _ _ _ _ (rw_mdia tb) rw_id).
Qed.

Lemma rws_moov_children nd xs :
  rws (upd_moov_children vI vU nd xs) (upd_moov_children leaf_as_decoded norm_box nd xs).
Proof.
  intros cs Hdx. revert xs. induction Hdx as [|c t Hc _ IH]; intros xs; [split; [reflexivity|constructor]|].
  cbn [upd_moov_children]. destruct (named n_trak c) eqn:Etr.
  - destruct xs as [|[tb x] xt]; [exact (rws_step _ _ _ _ _ _ (rw_id _ eq_refl Hc) (IH []))|].
    exact (rws_step _ _ _ _ _ _ (rw_trak tb x c Etr Hc) (IH xt)).
  - exact (rws_step _ _ _ _ _ _ (rw_if _ _ _ _ _ (rw_weaken (named n_mvhd) _ _ (rw_set_mvhd nd)) rw_id c eq_refl Hc) (IH xs)).
Qed.

(* the moov mp4ff-crop encodes prints and parses: decoding its bytes gives out_moov_decoded *)
Lemma rw_out_moov nd xs : rw_on (named n_moov) (out_moov nd xs) (out_moov_decoded nd xs).
Proof. apply (rw_cont n_moov); [apply in_six; tauto|apply rws_moov_children]. Qed.

Lemma decode_seq_mono f : forall bs ts k, decode_seq f bs = Ok ts -> decode_seq (f + k) bs = Ok ts.
Proof.
  induction f as [|f IH]; intros bs ts k H; [discriminate|]. cbn [decode_seq Nat.add] in *.
  destruct bs as [|b bs']; [exact H|].
  destruct (decode (b :: bs')) as [[t r]| | |]; try discriminate.
  destruct (decode_seq f r) as [ts'| | |] eqn:E; try discriminate. now rewrite (IH _ _ k E).
Qed.

Lemma ppr_seq ts ts' : Forall2 ppr ts ts' ->
  exists enc, encode_seq false ts = Ok enc /\ lenN enc = sumN (map size_box ts) /\ (length ts <= length enc)%nat /\
    forall tail tts ft, decode_seq ft tail = Ok tts -> decode_seq (length ts + ft) (enc ++ tail) = Ok (ts' ++ tts).
Proof.
  induction 1 as [|c c' t t' Hc _ (e2 & He2 & Hl2 & Hn2 & Hrep2)].
  - exists []. repeat split; try reflexivity. intros tail tts ft H. exact H.
  - pose proof (ppr_size_pos _ _ Hc) as Hpos. destruct Hc as (e1 & He1 & Hl1 & Hs1 & Hn1 & Hb1 & Hrep1).
    assert (He1n : (1 <= length e1)%nat) by (unfold lenN in Hl1; lia).
    exists (e1 ++ e2). cbn [encode_seq map sumN]. rewrite He1, He2. cbn [rcat].
    split; [reflexivity|]. split; [rewrite lenN_app; lia|]. split; [rewrite app_length; cbn [length]; lia|].
    intros tail tts ft H. cbn [length Nat.add decode_seq].
    destruct ((e1 ++ e2) ++ tail) as [|b bs'] eqn:Ebs.
    { exfalso. apply (f_equal (@length N)) in Ebs. rewrite !app_length in Ebs. cbn [length] in Ebs. lia. }
    rewrite <- Ebs. unfold decode. rewrite <- app_assoc.
    rewrite Hrep1 by (rewrite app_length; lia). rewrite (Hrep2 _ _ _ H). reflexivity.
Qed.

Lemma dx_of_seq f : forall bs ts, bytes_ok bs = true -> decode_seq f bs = Ok ts -> forallb exact_box ts = true ->
  Forall dx ts.
Proof.
  induction f as [|f IH]; intros bs ts Hok H Hex; [discriminate|]. cbn [decode_seq] in H.
  destruct bs as [|b bs']; [injection H as <-; constructor|].
  unfold decode in H.
  destruct (decode_box (S (length (b :: bs'))) (b :: bs')) as [[t r]| | |] eqn:Eb; try discriminate.
  destruct (decode_seq f r) as [ts'| | |] eqn:Es; try discriminate. injection H as <-.
  cbn [forallb] in Hex. apply andb_true_iff in Hex. destruct Hex as [Ht Hts].
  destruct (proj1 (tree_both _) _ _ _ Hok Eb Ht) as (_ & _ & _ & Hokr).
  constructor; [now exists (S (length (b :: bs'))), (b :: bs'), r|]. exact (IH _ _ Hokr Es Hts).
Qed.

Lemma few_inv ts : forall pre, file_encode_w ts = Ok pre -> forallb enc_fits ts = true /\ encode_seq false ts = Ok pre.
Proof.
  induction ts as [|t r IH]; intros pre H; [now split|]. cbn [file_encode_w encode_seq forallb] in *.
  destruct (rcat_ok _ _ _ H) as (x & y & Hx & Hy & ->). destruct (IH _ Hy) as [Hf Hs].
  unfold encode_w in Hx. destruct (raw_box false t) as [b| | |]; try discriminate.
  destruct (enc_fits t && caps_ok t) eqn:E; try discriminate. injection Hx as <-.
  apply andb_true_iff in E. destruct E as [E _]. rewrite E, Hf, Hs. now split.
Qed.

(* C08's four-byte big endian = C01's *)
Lemma be32_be_enc x : x < 4294967296 -> C08Model.be32 x = be_enc 4 x.
Proof.
  intros Hx. Transparent be_enc. unfold be_enc, C08Model.be32. cbn [le_enc rev app]. Opaque be_enc.
  rewrite !N.div_div by discriminate. cbn [N.mul Pos.mul].
  rewrite (N.mod_small (x / 16777216)) by (apply N.div_lt_upper_bound; [discriminate|exact Hx]).
  reflexivity.
Qed.

Definition mdat_box (body : list N) : mbox := MLeaf (mkHdr n_mdat (8 + lenN body) 8) (LMdat false body) [].
Lemma mdat_decodes body : 8 + lenN body < 4294967296 ->
  decode_seq 2 (enc_hdr n_mdat (8 + lenN body) ++ body) = Ok [mdat_box body].
Proof.
  intros Hb. cbn [decode_seq].
  destruct (enc_hdr n_mdat (8 + lenN body) ++ body) as [|b bs'] eqn:Ebs.
  { exfalso. apply (f_equal (@length N)) in Ebs. unfold enc_hdr in Ebs. rewrite !app_length, length_be_enc in Ebs.
    cbn [length] in Ebs. lia. }
  rewrite <- Ebs. unfold decode. cbn [decode_box].
  rewrite header_rt by (try reflexivity; lia). cbn [h_size h_len h_name].
  replace (bytes_eqb n_mdat n_mdat) with true by reflexivity. rewrite andb_false_r.
  replace (lookup n_mdat leaf_table) with (Some dec_mdat) by reflexivity.
  unfold dec_mdat, payload_len. cbn [h_size h_len]. replace (8 + lenN body - 8) with (lenN body) by lia.
  assert (Hr : rdB (lenN body) body = Ok (body, [])) by (rewrite <- (app_nil_r body) at 2; apply rdB_app).
  rewrite Hr. reflexivity.
Qed.

From V.c10 Require Import C10Model C10FileModel.

Lemma write_mdat_shape file zeof m rs mb : write_mdat file zeof m rs = Ok mb ->
  exists body, u64 (ranges_size rs 0 + 8) < 4294967296 /\ lenN body = ranges_size rs 0 /\
    mb = C08Model.be32 (u32 (u64 (ranges_size rs 0 + 8))) ++ C08Model.name_mdat ++ body.
Proof.
  unfold write_mdat. intros H.
  destruct (4294967296 <=? u64 (ranges_size rs 0 + 8)) eqn:E; [discriminate|]. apply N.leb_gt in E.
  unfold C08Model.encode_header_with_size in H. cbn [negb andb] in H.
  replace (4294967296 <=? u64 (ranges_size rs 0 + 8)) with false in H by (symmetry; now apply N.leb_gt).
  cbn [rbind] in H.
  destruct (copy_ranges file zeof m rs) as [body| | |]; try discriminate. cbn [rbind] in H.
  destruct (lenN body =? ranges_size rs 0) eqn:El; [|discriminate]. injection H as <-.
  exists body. apply N.eqb_eq in El. split; [assumption|]. split; [assumption|]. reflexivity.
Qed.

(* the tool succeeded: the boxes it encoded, and the mdat it wrote with a compact header *)
Lemma crop_tool_ts_bytes input ts ci ms out ranges swm out_bytes :
  scope input ts = Some ci -> crop_tree ts ci ms = Ok (out, ranges, swm) ->
  crop_tool_ts input ts ms = Some (Ok out_bytes) -> lenN out_bytes < 18446744073709551616 ->
  exists pre body, forallb enc_fits out = true /\ file_encode_w out = Ok pre /\ encode_seq false out = Ok pre /\
    write_mdat input true (ci_mdat ci) ranges = Ok (enc_hdr n_mdat (8 + lenN body) ++ body) /\
    lenN body = ranges_size ranges 0 /\ 8 + lenN body < 4294967296 /\
    out_bytes = pre ++ enc_hdr n_mdat (8 + lenN body) ++ body.
Proof.
  intros Hsc Hct Htool Hlen. unfold crop_tool_ts in Htool. rewrite Hsc, Hct in Htool. cbn [rbind] in Htool.
  destruct (file_encode_w out) as [pre| | |] eqn:Epre; try discriminate. cbn [rbind] in Htool.
  destruct (write_mdat input true (ci_mdat ci) ranges) as [mb| | |] eqn:Emb; try discriminate. cbn [rbind] in Htool.
  injection Htool as <-.
  destruct (few_inv _ _ Epre) as [Hef Hseq].
  destruct (write_mdat_shape _ _ _ _ _ Emb) as (body & Hpsz & Hbl & ->).
  rewrite !lenN_app in Hlen.
  assert (Hb4 : lenN (C08Model.be32 (u32 (u64 (ranges_size ranges 0 + 8)))) = 4) by reflexivity.
  assert (Hn4 : lenN C08Model.name_mdat = 4) by reflexivity.
  assert (Hu : u64 (ranges_size ranges 0 + 8) = 8 + lenN body) by (unfold u64; rewrite N.mod_small by lia; lia).
  rewrite Hu in *. rewrite (u32_small _ Hpsz), (be32_be_enc _ Hpsz).
  change C08Model.name_mdat with n_mdat.
  rewrite (app_assoc (be_enc 4 (8 + lenN body)) n_mdat body). fold (enc_hdr n_mdat (8 + lenN body)).
  exists pre, body. repeat split; assumption || reflexivity.
Qed.

Definition out_tree (nd : N) (xs : list (C09Model.tables * hdr_trak)) (ts : list mbox) : list mbox :=
  map (fun t => if named n_moov t then out_moov nd xs t else t) (non_mdat ts).
Definition out_tree_decoded (nd : N) (xs : list (C09Model.tables * hdr_trak)) (ts : list mbox) : list mbox :=
  map (fun t => if named n_moov t then out_moov_decoded nd xs t else norm_box t) (non_mdat ts).

Lemma crop_tree_shape ts ci ms out ranges swm : crop_tree ts ci ms = Ok (out, ranges, swm) ->
  exists nd xs, out = out_tree nd xs ts.
Proof.
  unfold crop_tree. destruct (file_frag ts); [discriminate|].
  destruct (crop_mp4_all (ci_hs ci) (ci_mvts ci) (ci_tks ci) ms (ci_rest ci)) as [r| | |]; try discriminate.
  cbn [rbind]. destruct r as [[[et ets] [[[tbs rg] ks] sw]] [nd tks']]. intros H. injection H as <- _ _.
  now exists nd, (combine tbs tks').
Qed.

Lemma crop_output_decodes input ts ci ms out ranges swm out_bytes :
  bytes_ok input = true -> decode_file input = Ok ts -> forallb exact_box ts = true ->
  scope input ts = Some ci -> crop_tree ts ci ms = Ok (out, ranges, swm) ->
  crop_tool_ts input ts ms = Some (Ok out_bytes) ->
  forallb tree_fits out = true -> lenN out_bytes < 18446744073709551616 ->
  exists nd xs pre body,
    out = out_tree nd xs ts /\
    file_encode_w out = Ok pre /\ encode_seq false out = Ok pre /\ lenN pre = sumN (map size_box out) /\
    write_mdat input true (ci_mdat ci) ranges = Ok (enc_hdr n_mdat (8 + lenN body) ++ body) /\
    lenN body = ranges_size ranges 0 /\ 8 + lenN body < 4294967296 /\
    out_bytes = pre ++ enc_hdr n_mdat (8 + lenN body) ++ body /\
    decode_file out_bytes = Ok (out_tree_decoded nd xs ts ++ [mdat_box body]).
Proof.
  intros Hok Hdec Hex Hsc Hct Htool Hfits Hlen.
  destruct (crop_tree_shape _ _ _ _ _ _ Hct) as (nd & xs & Hout).
  destruct (crop_tool_ts_bytes _ _ _ _ _ _ _ _ Hsc Hct Htool Hlen) as (pre & body & Hef & Epre & Hseq & Emb & Hbl & Hpsz & ->).
  (* every non-mdat box prints and parses *)
  pose proof (dx_of_seq _ _ _ Hok Hdec Hex) as Hdx.
  assert (H2 : Forall2 ppr (out_tree nd xs ts) (out_tree_decoded nd xs ts)).
  { rewrite Hout in Hef, Hfits.
    apply (rws_map _ _ (rw_if _ _ _ _ _ (rw_out_moov nd xs) rw_id) (non_mdat ts)); [|exact Hef|exact Hfits].
    apply Forall_forall. intros t Hin. apply filter_In in Hin. exact (proj1 (Forall_forall _ _) Hdx t (proj1 Hin)). }
  destruct (ppr_seq _ _ H2) as (enc & Henc & Hl & Hcount & Hrep).
  rewrite <- Hout in Henc, Hl. rewrite Hseq in Henc. injection Henc as <-.
  exists nd, xs, pre, body. repeat split; try assumption; try reflexivity.
  unfold decode_file. specialize (Hrep _ _ 2%nat (mdat_decodes body Hpsz)).
  replace (S (length (pre ++ enc_hdr n_mdat (8 + lenN body) ++ body)))
    with ((length (out_tree nd xs ts) + 2) + (S (length (pre ++ enc_hdr n_mdat (8 + lenN body) ++ body)) - (length (out_tree nd xs ts) + 2)))%nat.
  - apply decode_seq_mono. exact Hrep.
  - rewrite !app_length. unfold enc_hdr. rewrite app_length, length_be_enc. cbn [length]. lia.
Qed.

From V.c01 Require Import C01FileProofs.

Lemma crop_tool_inv input ms out_bytes : crop_tool input ms = Some (Ok out_bytes) ->
  exists ts ci out ranges swm, decode_file_sr input = FOk ts /\ scope input ts = Some ci /\
    crop_tree ts ci ms = Ok (out, ranges, swm) /\ crop_tool_ts input ts ms = Some (Ok out_bytes).
Proof.
  unfold crop_tool. destruct (decode_file_sr input) as [ts| | | |] eqn:Ed; try discriminate. intros H.
  pose proof H as H'. unfold crop_tool_ts in H. destruct (scope input ts) as [ci|] eqn:Es; [|discriminate].
  injection H as H. destruct (crop_tree ts ci ms) as [[[out ranges] swm]| | |] eqn:Ec; try discriminate.
  now exists ts, ci, out, ranges, swm.
Qed.

(* the statement of C10_output_file_bytes + C10_output_decodes *)
Definition output_ok (input : list N) (ci : crop_in) (ts out : list mbox) (ranges : list (N * N)) (out_bytes : list N) : Prop :=
  exists nd xs pre body,
    out = out_tree nd xs ts /\
    file_encode_w out = Ok pre /\ encode_seq false out = Ok pre /\ lenN pre = sumN (map size_box out) /\
    write_mdat input true (ci_mdat ci) ranges = Ok (enc_hdr n_mdat (8 + lenN body) ++ body) /\
    lenN body = ranges_size ranges 0 /\ 8 + lenN body < 4294967296 /\
    out_bytes = pre ++ enc_hdr n_mdat (8 + lenN body) ++ body /\
    decode_file out_bytes = Ok (out_tree_decoded nd xs ts ++ [mdat_box body]).

Lemma crop_tool_decodes input ms out_bytes :
  bytes_ok input = true -> crop_tool input ms = Some (Ok out_bytes) -> lenN out_bytes < 18446744073709551616 ->
  exists ts ci out ranges swm, decode_file_sr input = FOk ts /\ scope input ts = Some ci /\
    crop_tree ts ci ms = Ok (out, ranges, swm) /\
    (forallb exact_box ts = true -> forallb tree_fits out = true -> output_ok input ci ts out ranges out_bytes).
Proof.
  intros Hok Htool Hlen. destruct (crop_tool_inv _ _ _ Htool) as (ts & ci & out & ranges & swm & Hd & Hs & Hc & Ht).
  exists ts, ci, out, ranges, swm. repeat split; try assumption. intros Hex Hfits.
  assert (Hdf : decode_file input = Ok ts).
  { unfold decode_file_sr in Hd. exact (proj1 (loop_sound _ _ _ _ Hd (exact_no_trunc _ Hex))). }
  exact (crop_output_decodes input ts ci ms out ranges swm out_bytes Hok Hdf Hex Hs Hc Ht Hfits Hlen).
Qed.

(* the bytes alone: no hypothesis on the input boxes *)
Lemma crop_tool_file_bytes input ms out_bytes :
  crop_tool input ms = Some (Ok out_bytes) -> lenN out_bytes < 18446744073709551616 ->
  exists ts ci out ranges swm nd xs pre body,
    decode_file_sr input = FOk ts /\ scope input ts = Some ci /\ crop_tree ts ci ms = Ok (out, ranges, swm) /\
    out = out_tree nd xs ts /\ file_encode_w out = Ok pre /\ encode_seq false out = Ok pre /\
    write_mdat input true (ci_mdat ci) ranges = Ok (enc_hdr n_mdat (8 + lenN body) ++ body) /\
    lenN body = ranges_size ranges 0 /\ 8 + lenN body < 4294967296 /\
    out_bytes = pre ++ enc_hdr n_mdat (8 + lenN body) ++ body.
Proof.
  intros Htool Hlen. destruct (crop_tool_inv _ _ _ Htool) as (ts & ci & out & ranges & swm & Hd & Hsc & Hct & Ht).
  destruct (crop_tree_shape _ _ _ _ _ _ Hct) as (nd & xs & Hout).
  destruct (crop_tool_ts_bytes _ _ _ _ _ _ _ _ Hsc Hct Ht Hlen) as (pre & body & _ & H).
  exists ts, ci, out, ranges, swm, nd, xs, pre, body. tauto.
Qed.

(* the function the driver runs (one pass, with the extra observables) computes crop_tool *)
Lemma report_is_tool input ms :
  crop_tool input ms =
  match crop_tool_report input ms with
  | None => None
  | Some r => Some (match r with Ok x => Ok (fst (fst x)) | Err => Err | Panic => Panic | OutOfFuel => OutOfFuel end)
  end.
Proof.
  unfold crop_tool, crop_tool_report, crop_tool_ts. destruct (decode_file_sr input) as [ts| | | |]; try reflexivity.
  destruct (scope input ts) as [ci|]; [|reflexivity].
  destruct (crop_tree ts ci ms) as [[[out ranges] swm]| | |]; try reflexivity. cbn [rbind].
  destruct (file_encode_w out) as [pre| | |]; try reflexivity. cbn [rbind].
  destruct (write_mdat input true (ci_mdat ci) ranges) as [mb| | |]; reflexivity.
Qed.
