(* C10ConsProofs.v — the cropped tables are consistent again, and expand to the k-prefix of every per-sample list. *)
From V.lib Require Import Base.
From V.c09 Require Import C09Model C09Spec C09BaseProofs C09SttsProofs C09CttsProofs.
From V.c10 Require Import C10Model C10RlProofs C10CttsProofs C10StscProofs.

(* what the new chunk offsets must satisfy (they are produced by fillTrakOutsAndByteRanges + updateChunkOffsets) *)
Definition new_offsets_ok (tb : tables) (k : N) (offs : list N) : bool :=
  match S_chunk_of tb k with
  | Some C' => (lenN offs =? C')
  | None => false
  end
  && forallb (fun o => o + sumN (firstnN (sizes tb) k) <? 18446744073709551616) offs
  && match t_stco tb with Some _ => forallb is_u32 offs | None => true end.

Lemma map_u32_id l : forallb is_u32 l = true -> map u32 l = l.
Proof.
  induction l as [|x t IH]; intros H; [reflexivity|]. cbn [forallb] in H. apply andb_prop in H. destruct H as [Hx Ht].
  cbn [map]. rewrite (IH Ht). unfold is_u32 in Hx. rewrite u32_small by lia. reflexivity.
Qed.

Lemma update_stco_id l : forallb is_u32 l = true -> update_stco l = Ok l.
Proof.
  induction l as [|x t IH]; intros H; [reflexivity|]. cbn [forallb] in H. apply andb_prop in H. destruct H as [Hx Ht].
  cbn [update_stco]. unfold is_u32 in Hx. destruct (4294967295 <? x) eqn:E; [lia|]. rewrite (IH Ht). reflexivity.
Qed.

Lemma crop_tables_consistent tb : consistent tb = true -> forall k offs, 1 <= k <= nsamples tb ->
  new_offsets_ok tb k offs = true ->
  exists tb', crop_tables tb k offs = Ok tb' /\ consistent tb' = true /\ nsamples tb' = k /\
    durs tb' = firstnN (durs tb) k /\ sizes tb' = firstnN (sizes tb) k /\
    (forall c, t_ctts tb = Some c -> exists c', t_ctts tb' = Some c' /\ ctos_of c' = firstnN (ctos_of c) k) /\
    (forall l, t_stss tb = Some l -> t_stss tb' = Some (filter (fun y => y <=? k) l)) /\
    (forall l, t_sdtp tb = Some l -> t_sdtp tb' = Some (firstnN l k)) /\
    sample_chunks (counts_of tb') 1 = firstnN (sample_chunks (counts_of tb) 1) k /\
    offsets tb' = offs.
Proof.
  intros H k offs Hk Hno.
  destruct (consistent_parts tb H) as [Hn [Hst [Hct [Hsc [Hsz [Hof [Hss Hsd]]]]]]].
  destruct (stts_crop_correct tb H k Hk) as [cs' [ds' [Hcs [Hex [Hl [Hsum [Hc32 Hd32]]]]]]].
  destruct (stsz_crop_correct tb H k Hk) as [z' [Hz [Hzs [Hzn [Hzu [Hzc Hz32]]]]]].
  destruct (stsc_crop_correct tb H k Hk)
    as [b' [C' [Hb [Hch [HcR [Hcc [Hr1 [Hfk [[cnt [Hcnt Hrc]] [Hok' [[e0' [He0 [Hfc0 Hfs0]]] [Hids' [Hnz' Hsing']]]]]]]]]]]]].
  destruct (stsc_crop_sample_chunks tb H k Hk) as [b2 [C2 [Hb2 [Hch2 [Hsc2 Hsum2]]]]].
  rewrite Hb in Hb2. injection Hb2 as <-. rewrite Hch in Hch2. injection Hch2 as <-.
  unfold new_offsets_ok in Hno. rewrite Hch in Hno.
  apply andb_prop in Hno. destruct Hno as [Hno Hno32]. apply andb_prop in Hno. destruct Hno as [Hnolen Hnob].
  assert (Hctts : exists ct', match t_ctts tb with None => Ok None | Some c => do c' <- crop_ctts c k; Ok (Some c') end = Ok ct' /\
            match t_ctts tb, ct' with
            | None, None => True
            | Some c, Some c' => ctos_of c' = firstnN (ctos_of c) k /\ lenN (ct_end c') = lenN (ct_off c') + 1 /\
                                 hd 1 (ct_end c') = 0 /\ sorted_le (ct_end c') = true /\ last (ct_end c') 0 = k
            | _, _ => False
            end).
  { destruct (t_ctts tb) as [c|] eqn:Ec; [|exists None; split; [reflexivity|exact I]].
    destruct (ctts_crop_correct tb c H Ec k Hk) as [c' [Hc' Hrest]]. exists (Some c'). rewrite Hc'. split; [reflexivity|exact Hrest]. }
  destruct Hctts as [ct' [Hct1 Hct2]].
  assert (Hso : match t_stco tb with Some _ => do l <- update_stco offs; Ok (Some l) | None => Ok None end
                = Ok (match t_stco tb with Some _ => Some offs | None => None end)).
  { destruct (t_stco tb); [rewrite (update_stco_id _ Hno32); reflexivity|reflexivity]. }
  unfold crop_tables. rewrite Hcs. cbn [rbind]. rewrite Hct1. cbn [rbind]. rewrite Hb. cbn [rbind]. rewrite Hz. cbn [rbind fst snd].
  rewrite Hso. cbn [rbind].
  eexists. split; [reflexivity|].
  set (tb' := mkTables cs' ds' ct' b' z' _ _ _ _).
  assert (Hsizes : sizes tb' = firstnN (sizes tb) k) by exact Hzs.
  assert (Hstsz_N : lenN (sizes tb) = nsamples tb) by reflexivity.
  assert (HN' : nsamples tb' = k).
  { unfold nsamples. rewrite Hsizes. apply lenN_firstnN. unfold nsamples in Hk. lia. }
  assert (Hoffs : offsets tb' = offs).
  { unfold offsets, tb'. cbn [t_stco t_co64]. unfold offsets_ok in Hof.
    destruct (t_stco tb) as [l|]; [reflexivity|].
    destruct (t_co64 tb) as [l|]; [reflexivity|]. discriminate. }
  assert (HC' : nchunks tb' = C') by (unfold nchunks; rewrite Hoffs; lia).
  assert (Hcounts' : counts_of tb' = chunk_counts (sc_entries b') C') by (unfold counts_of; rewrite HC'; reflexivity).
  split; [|split; [exact HN'|split; [exact Hex|split; [exact Hsizes|]]]].
  - (* consistent *)
    unfold consistent. rewrite HN'.
    assert (G1 : is_u32 (k + 1) = true) by (unfold is_u32 in *; lia). rewrite G1. cbn [andb].
    assert (G2 : stts_ok tb' = true).
    { unfold stts_ok. cbn [t_stts_count t_stts_delta tb']. rewrite HN', Hc32, Hd32.
      repeat (apply andb_true_intro; split); try reflexivity; lia. }
    assert (G3 : ctts_ok tb' = true).
    { unfold ctts_ok. cbn [t_ctts tb']. destruct (t_ctts tb) as [c|], ct' as [c'|]; try contradiction; [|reflexivity].
      destruct Hct2 as [_ [A1 [A2 [A3 A4]]]]. rewrite HN', A3.
      repeat (apply andb_true_intro; split); try reflexivity; lia. }
    assert (G4 : stsc_ok tb' = true).
    { unfold stsc_ok. cbn [t_stsc tb']. rewrite HC', Hcounts', Hok', Hsum2, HN', Hids', Hnz'.
      destruct (sc_entries b') as [|x l]; [discriminate|]. cbn [nthN N.eqb] in He0. injection He0 as ->.
      rewrite Hsing'. unfold stsc_ok in Hsc. apply andb_prop in Hsc. destruct Hsc as [_ Hs32]. rewrite Hs32.
      repeat (apply andb_true_intro; split); try reflexivity; lia. }
    assert (G5 : stsz_ok tb' = true).
    { unfold stsz_ok. cbn [t_stsz tb']. rewrite Hzn, Hzu, Hz32. rewrite Hzu, Hzn in Hzc. rewrite Hzc.
      unfold stsz_ok in Hsz. apply andb_prop in Hsz. destruct Hsz as [Hsz _]. apply andb_prop in Hsz. destruct Hsz as [Hsz _].
      apply andb_prop in Hsz. destruct Hsz as [Hu _]. rewrite Hu.
      repeat (apply andb_true_intro; split); try reflexivity; unfold is_u32 in *; lia. }
    assert (G6 : offsets_ok tb' = true).
    { pose proof Hof as Hof2. unfold offsets_ok in Hof2. apply andb_prop in Hof2. destruct Hof2 as [_ HCb]. unfold is_u32 in HCb.
      unfold offsets_ok. rewrite HC', Hoffs, Hsizes, Hnob.
      unfold tb'. cbn [t_stco t_co64]. unfold offsets_ok in Hof.
      destruct (t_stco tb) as [l|].
      - rewrite Hno32. cbn [andb]. unfold is_u32. lia.
      - destruct (t_co64 tb) as [l|]; [|discriminate]. cbn [andb]. unfold is_u32. lia. }
    assert (G7 : stss_ok tb' = true).
    { unfold stss_ok in *. cbn [t_stss tb']. destruct (t_stss tb) as [l|]; [|reflexivity].
      apply andb_prop in Hss. destruct Hss as [S1 S2]. rewrite HN'.
      destruct (stss_crop_ok l (nsamples tb) k S1 S2 ltac:(lia)) as [A B]. rewrite A, B. reflexivity. }
    assert (G8 : sdtp_ok tb' = true).
    { unfold sdtp_ok in *. cbn [t_sdtp tb']. destruct (t_sdtp tb) as [l|]; [|reflexivity].
      apply andb_prop in Hsd. destruct Hsd as [S1 S2]. rewrite HN'.
      rewrite sdtp_crop_correct by lia. rewrite lenN_firstnN by lia. rewrite (forallb_firstnN _ _ _ S2).
      apply andb_true_intro. split; [lia|reflexivity]. }
    rewrite G2, G3, G4, G5, G6, G7, G8. reflexivity.
  - split; [|split; [|split; [|split]]].
    + intros c Ec. rewrite Ec in Hct2. destruct ct' as [c'|]; [|contradiction]. exists c'. split; [reflexivity|apply Hct2].
    + intros l El. unfold tb'. cbn [t_stss]. rewrite El. f_equal. apply stss_crop_correct.
      unfold stss_ok in Hss. rewrite El in Hss. apply andb_prop in Hss. apply sorted_lt_le. tauto.
    + intros l El. unfold tb'. cbn [t_sdtp]. rewrite El. f_equal. apply sdtp_crop_correct.
      unfold sdtp_ok in Hsd. rewrite El in Hsd. apply andb_prop in Hsd. lia.
    + rewrite Hcounts'. exact Hsc2.
    + exact Hoffs.
Qed.
