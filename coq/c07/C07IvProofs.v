(* C07IvProofs.v — incrementIV(InPlace) is big-endian addition modulo 2^(8|iv|). *)
From V.lib Require Import Base.
From V.c07 Require Import C07Model.

Fixpoint le (l : list N) : N := match l with [] => 0 | b :: t => b + 256 * le t end.

Lemma be_app1 l b : be (l ++ [b]) = be l * 256 + b.
Proof. unfold be. rewrite fold_left_app. reflexivity. Qed.

Lemma be_rev l : be (rev l) = le l.
Proof.
  induction l as [|b t IH]; [reflexivity|].
  cbn [rev le]. rewrite be_app1, IH. lia.
Qed.

Lemma be_le_rev l : be l = le (rev l).
Proof. rewrite <- be_rev, rev_involutive. reflexivity. Qed.

Lemma pow256_pos n : 0 < 256 ^ n.
Proof. apply N.neq_0_lt_0, N.pow_nonzero. discriminate. Qed.

Lemma le_bound l : bytes_ok l = true -> le l < 256 ^ lenN l.
Proof.
  induction l as [|b t IH]; intros H.
  - cbn. lia.
  - rewrite bytes_ok_cons in H. apply andb_true_iff in H. destruct H as [Hb Ht].
    unfold byte_ok in Hb. apply N.ltb_lt in Hb. specialize (IH Ht).
    rewrite lenN_cons. cbn [le].
    replace (1 + lenN t) with (N.succ (lenN t)) by lia. rewrite N.pow_succ_r'. lia.
Qed.

Lemma bytes_ok_rev l : bytes_ok (rev l) = bytes_ok l.
Proof.
  induction l as [|b t IH]; [reflexivity|].
  cbn [rev]. rewrite bytes_ok_app, IH, bytes_ok_cons. cbn. rewrite andb_true_r. apply andb_comm.
Qed.

Lemma be_bound l : bytes_ok l = true -> be l < 256 ^ lenN l.
Proof.
  intros H. rewrite be_le_rev. replace (lenN l) with (lenN (rev l)) by (unfold lenN; rewrite rev_length; reflexivity).
  apply le_bound. rewrite bytes_ok_rev. exact H.
Qed.

Lemma inc_le_length l r : length (inc_le l r) = length l.
Proof.
  revert r. induction l as [|b t IH]; intros r; [reflexivity|].
  cbn [inc_le]. destruct (b + r <? 256); cbn [length]; [reflexivity|]. rewrite IH. reflexivity.
Qed.

Lemma inc_le_bytes_ok l r : bytes_ok l = true -> bytes_ok (inc_le l r) = true.
Proof.
  revert r. induction l as [|b t IH]; intros r H; [reflexivity|].
  rewrite bytes_ok_cons in H. apply andb_true_iff in H. destruct H as [Hb Ht].
  cbn [inc_le]. destruct (b + r <? 256) eqn:E; rewrite bytes_ok_cons.
  - unfold byte_ok. rewrite E. exact Ht.
  - rewrite (IH _ Ht). unfold byte_ok.
    assert ((b + r) mod 256 < 256) by (apply N.mod_lt; discriminate).
    apply N.ltb_lt in H. rewrite H. reflexivity.
Qed.

Lemma inc_le_value l r :
  bytes_ok l = true -> le (inc_le l r) = (le l + r) mod 256 ^ lenN l.
Proof.
  revert r. induction l as [|b t IH]; intros r H.
  - cbn. rewrite N.mod_1_r. reflexivity.
  - rewrite bytes_ok_cons in H. apply andb_true_iff in H. destruct H as [Hb Ht].
    unfold byte_ok in Hb. apply N.ltb_lt in Hb.
    pose proof (le_bound t Ht) as Hbd. pose proof (pow256_pos (lenN t)) as Hpos.
    rewrite lenN_cons. replace (1 + lenN t) with (N.succ (lenN t)) by lia. rewrite N.pow_succ_r'.
    cbn [inc_le le]. destruct (b + r <? 256) eqn:E.
    + apply N.ltb_lt in E. cbn [le]. rewrite N.mod_small by nia. lia.
    + cbn [le]. rewrite (IH _ Ht). set (M := 256 ^ lenN t) in *.
      (* split the sum at the low byte: x mod (256 M) = x mod 256 + 256 ((x / 256) mod M) *)
      replace (b + 256 * le t + r) with (b + r + le t * 256) by lia.
      rewrite (N.mod_mul_r _ 256 M), N.mod_add, N.div_add by lia.
      rewrite (N.add_comm (le t)). reflexivity.
Qed.

Lemma pow2_8 k : 2 ^ (8 * k) = 256 ^ k.
Proof. rewrite N.pow_mul_r. reflexivity. Qed.

Lemma increment_iv_inplace_length iv n : length (increment_iv_inplace iv n) = length iv.
Proof. unfold increment_iv_inplace. rewrite rev_length, inc_le_length, rev_length. reflexivity. Qed.

Lemma increment_iv_inplace_bytes_ok iv n :
  bytes_ok iv = true -> bytes_ok (increment_iv_inplace iv n) = true.
Proof.
  intros H. unfold increment_iv_inplace. rewrite bytes_ok_rev. apply inc_le_bytes_ok.
  rewrite bytes_ok_rev. exact H.
Qed.

Lemma iv_increment_inplace iv n :
  bytes_ok iv = true ->
  be (increment_iv_inplace iv n) = (be iv + n) mod 2 ^ (8 * lenN iv).
Proof.
  intros H. unfold increment_iv_inplace. rewrite be_rev, inc_le_value.
  - rewrite <- be_le_rev, pow2_8. unfold lenN. rewrite rev_length. reflexivity.
  - rewrite bytes_ok_rev. exact H.
Qed.

(* number of cipher blocks incrementIV accounts for *)
Lemma iv_increment iv ssps slen :
  bytes_ok iv = true ->
  be (increment_iv iv ssps slen) = (be iv + nr_enc_blocks ssps slen) mod 2 ^ (8 * lenN iv).
Proof. intros H. apply iv_increment_inplace. exact H. Qed.

(* be is injective on byte strings of equal length *)
Lemma le_inj l1 l2 :
  length l1 = length l2 -> bytes_ok l1 = true -> bytes_ok l2 = true -> le l1 = le l2 -> l1 = l2.
Proof.
  revert l2. induction l1 as [|a t IH]; intros [|b u] Hl H1 H2 He; try discriminate; [reflexivity|].
  rewrite bytes_ok_cons in H1, H2. apply andb_true_iff in H1, H2.
  destruct H1 as [Ha Ht], H2 as [Hb Hu]. unfold byte_ok in Ha, Hb. apply N.ltb_lt in Ha, Hb.
  cbn [le] in He. cbn [length] in Hl.
  assert (a = b) by lia. subst b. f_equal. apply IH; try assumption; lia.
Qed.

Lemma be_inj l1 l2 :
  length l1 = length l2 -> bytes_ok l1 = true -> bytes_ok l2 = true -> be l1 = be l2 -> l1 = l2.
Proof.
  intros Hl H1 H2 He. rewrite !be_le_rev in He.
  apply le_inj in He; try (rewrite bytes_ok_rev; assumption); [|rewrite !rev_length; exact Hl].
  rewrite <- (rev_involutive l1), He, rev_involutive. reflexivity.
Qed.

Lemma pad_iv_bytes_ok iv : bytes_ok iv = true -> bytes_ok (pad_iv iv) = true.
Proof. intros H. unfold pad_iv. destruct (lenN iv =? 8); [|exact H]. rewrite bytes_ok_app, H. reflexivity. Qed.
