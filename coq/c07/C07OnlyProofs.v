(* C07OnlyProofs.v — "everything else is byte-identical to the clear input", sample level and mdat level:
   CryptSampleCenc / cryptSampleCbcs keep the length of the sample and every byte that the sub-sample map does not
   mark as protected; over a fragment, the concatenated sample data (the mdat payload) changes at most at the
   protected positions of the concatenated maps. *)
From V.lib Require Import Base.
From V.c07 Require Import C07Model C07Spec C07IvProofs C07CryptProofs C07CbcsProofs.

(* keep_clear mask a b: the three lists have the same length and a, b agree wherever the mask is false *)
Fixpoint keep_clear (mask : list bool) (a b : list N) : Prop :=
  match mask, a, b with
  | [], [], [] => True
  | m :: mt, x :: xt, y :: yt => (m = false -> x = y) /\ keep_clear mt xt yt
  | _, _, _ => False
  end.

Lemma keep_clear_app : forall m1 a1 b1 m2 a2 b2,
  keep_clear m1 a1 b1 -> keep_clear m2 a2 b2 -> keep_clear (m1 ++ m2) (a1 ++ a2) (b1 ++ b2).
Proof.
  induction m1 as [|m mt IH]; intros a1 b1 m2 a2 b2 H1 H2.
  - destruct a1, b1; cbn in H1; try contradiction. exact H2.
  - destruct a1 as [|x xt], b1 as [|y yt]; cbn in H1; try contradiction.
    destruct H1 as [Hx Ht]. cbn. split; [exact Hx|apply IH; assumption].
Qed.

Lemma keep_clear_same : forall a, keep_clear (repeat false (length a)) a a.
Proof. induction a as [|x t IH]; cbn; [exact I|split; [reflexivity|exact IH]]. Qed.

Lemma keep_clear_any : forall a b, length a = length b -> keep_clear (repeat true (length a)) a b.
Proof.
  induction a as [|x t IH]; intros b H; destruct b as [|y u]; cbn in *; try discriminate; [exact I|].
  split; [discriminate|apply IH; lia].
Qed.

Lemma keep_clear_length : forall m a b, keep_clear m a b -> length a = length m /\ length b = length m.
Proof.
  induction m as [|x t IH]; intros a b H; destruct a, b; cbn in H; try contradiction; [split; reflexivity|].
  destruct H as [_ H]. apply IH in H. cbn. lia.
Qed.

Lemma keep_clear_nth m a b j :
  keep_clear m a b -> nth j m true = false -> nth_error a j = nth_error b j.
Proof.
  revert a b j. induction m as [|x t IH]; intros a b j H Hj; destruct a, b; cbn in H; try contradiction.
  - destruct j; discriminate.
  - destruct H as [Hx Ht]. destruct j as [|j]; cbn in *; [rewrite (Hx Hj); reflexivity|apply IH; assumption].
Qed.

Definition covered (r : list ssp) : N := sumN (map (fun p => ss_clear p + ss_prot p) r).

(* the per-byte flags of a sample: the sub-sample map, anything it does not cover being clear; without a map
   (audio) every byte may change *)
Definition sample_mask (ssps : list ssp) (len : N) : list bool :=
  match ssps with
  | [] => rep true len
  | _ => expand ssps ++ rep false (len - covered ssps)
  end.

(* what the fragment lemmas ask of a sample and the protection function: uint32 size, entries inside the sample *)
Definition sample_ok (pf : list N -> res (list ssp)) (s : list N) : Prop :=
  lenN s < 4294967296 /\ forall r, pf s = Ok r -> covered r <= lenN s.

Lemma prot_le_covered r : sumN (map ss_prot r) <= covered r.
Proof.
  unfold covered. induction r as [|p t IH]; [apply N.le_refl|]. cbn [map sumN]. lia.
Qed.

Lemma Forall2_with_Forall {A B} (P : A -> Prop) (R R' : A -> B -> Prop) l1 l2 :
  (forall a b, P a -> R a b -> R' a b) -> Forall P l1 -> Forall2 R l1 l2 -> Forall2 R' l1 l2.
Proof.
  intros Himp HP H2. induction H2 as [|a b l1 l2 Hab _ IH]; [constructor|].
  inversion HP; subst. constructor; [apply Himp; assumption|apply IH; assumption].
Qed.

(* sample by sample, hence over the mdat payload *)
Lemma keep_clear_concat pf samples encs :
  Forall2 (fun s e => pf s = Ok (e_ssps e) /\ keep_clear (sample_mask (e_ssps e) (lenN s)) s (e_data e)) samples encs ->
  keep_clear (concat (map (fun e => sample_mask (e_ssps e) (lenN (e_data e))) encs))
             (concat samples) (concat (map e_data encs)) /\
  Forall2 (fun s e => pf s = Ok (e_ssps e) /\ length (e_data e) = length s) samples encs.
Proof.
  induction 1 as [|s e l l' [Hp Hk] _ [IH1 IH2]]; [split; [exact I|constructor]|].
  destruct (keep_clear_length _ _ _ Hk) as [La Lb]. assert (Hl : length (e_data e) = length s) by lia.
  cbn [map concat]. split; [|constructor; [split; assumption|exact IH2]].
  apply keep_clear_app; [|exact IH1].
  replace (lenN (e_data e)) with (lenN s) by (unfold lenN; rewrite Hl; reflexivity). exact Hk.
Qed.

Lemma rep_length {A} (x : A) n : length (rep x n) = N.to_nat n.
Proof. unfold rep. apply repeat_length. Qed.

(* a walk over the sub-sample entries that copies the clear bytes and turns every protected range into bytes of the
   same number (s: whatever the walk carries along) changes protected positions only *)
Lemma walk_keeps {S} (f : S -> ssp -> list N -> list N) (next : S -> ssp -> S)
      (walk : S -> list ssp -> list N -> list N) :
  (forall s rest, walk s [] rest = rest) ->
  (forall s r t r1 mid post, lenN r1 = ss_clear r -> lenN mid = ss_prot r ->
     walk s (r :: t) (r1 ++ mid ++ post) = r1 ++ f s r mid ++ walk (next s r) t post) ->
  (forall s r mid, length (f s r mid) = length mid) ->
  forall ranges s rest, covered ranges <= lenN rest ->
    keep_clear (expand ranges ++ rep false (lenN rest - covered ranges)) rest (walk s ranges rest).
Proof.
  intros Hnil Hcons Hf. induction ranges as [|r t IH]; intros s rest Hc.
  - rewrite Hnil. cbn [expand flat_map app covered map sumN]. rewrite N.sub_0_r. unfold rep, lenN.
    rewrite Nat2N.id. apply keep_clear_same.
  - unfold covered in Hc. cbn [map sumN] in Hc. fold (covered t) in Hc.
    destruct (split3 rest (ss_clear r) (ss_prot r)) as (r1 & mid & post & -> & Hr1 & Hmid); [lia|].
    rewrite (Hcons s r t r1 mid post Hr1 Hmid). rewrite !lenN_app in *.
    replace (expand (r :: t) ++ rep false (lenN r1 + (lenN mid + lenN post) - covered (r :: t)))
      with (rep false (lenN r1) ++ rep true (lenN mid) ++ (expand t ++ rep false (lenN post - covered t))).
    + unfold rep at 1 2, lenN at 1 2. rewrite !Nat2N.id.
      apply keep_clear_app; [apply keep_clear_same|]. apply keep_clear_app; [|apply IH; lia].
      apply keep_clear_any. symmetry. apply Hf.
    + rewrite Hr1, Hmid. cbn [expand flat_map]. fold (expand t). rewrite <- !app_assoc. do 4 f_equal.
      unfold covered at 2. cbn [map sumN]. fold (covered t). lia.
Qed.

Section Cenc.
  Variable E : list N -> list N -> list N.
  Hypothesis HE : forall k b, length (E k b) = 16%nat.

  Lemma ref_cenc_keeps key iv ssps sample :
    covered ssps <= lenN sample ->
    keep_clear (sample_mask ssps (lenN sample)) sample (ref_cenc E key iv ssps sample).
  Proof.
    intros Hc. destruct ssps as [|r t].
    - cbn [sample_mask ref_cenc]. unfold rep, lenN. rewrite Nat2N.id. apply keep_clear_any.
      rewrite xorl_length; [reflexivity|]. rewrite ks_seg_length. reflexivity.
    - unfold sample_mask, ref_cenc.
      apply (walk_keeps (fun m _ mid => xorl mid (ks_seg E key iv m (length mid))) (fun m r => m + ss_prot r)
               (ref_walk E key iv)).
      + reflexivity.
      + intros m r0 t0. apply ref_walk_cons.
      + intros m _ mid. apply xorl_length. rewrite ks_seg_length. reflexivity.
      + exact Hc.
  Qed.

  Lemma cenc_sample_keeps key iv ssps sample c :
    length iv = 16%nat -> bytes_ok iv = true -> key_ok key = true ->
    covered ssps <= lenN sample -> lenN sample < 4294967296 ->
    crypt_sample_cenc E key iv ssps sample = Ok c ->
    keep_clear (sample_mask ssps (lenN sample)) sample c.
  Proof.
    intros Hl Hb Hk Hc Hlen H.
    rewrite (crypt_sample_cenc_ref E key iv HE Hl Hb ssps sample Hk Hc Hlen) in H.
    inversion H; subst c. apply ref_cenc_keeps. exact Hc.
  Qed.

  Lemma cenc_frag_keeps protfunc key : forall samples iv encs,
    length iv = 16%nat -> bytes_ok iv = true -> key_ok key = true ->
    Forall (sample_ok protfunc) samples ->
    encrypt_samples_cenc E protfunc key iv samples = Ok encs ->
    Forall2 (fun s e => protfunc s = Ok (e_ssps e) /\ keep_clear (sample_mask (e_ssps e) (lenN s)) s (e_data e))
            samples encs.
  Proof.
    induction samples as [|s t IH]; intros iv encs Hl Hb Hk Hf H.
    - cbn in H. inversion H. constructor.
    - destruct (encrypt_samples_cenc_cons E protfunc key iv s t encs H) as (ssps & c & r & Ep & Ec & Er & ->).
      destruct (Forall_inv Hf) as [Hs Hp]. constructor.
      + split; [exact Ep|]. exact (cenc_sample_keeps key iv ssps s c Hl Hb Hk (Hp ssps Ep) Hs Ec).
      + apply (IH (increment_iv iv ssps (lenN s))); [| |exact Hk|exact (Forall_inv_tail Hf)|exact Er]; unfold increment_iv.
        * rewrite increment_iv_inplace_length. exact Hl.
        * apply increment_iv_inplace_bytes_ok. exact Hb.
  Qed.
End Cenc.

Section CbcsOnly.
  Variable E : list N -> list N -> list N.
  Variable D : list N -> list N -> list N.
  Hypothesis HE : forall k b, length (E k b) = 16%nat.
  Hypothesis HD : forall k b, length (D k b) = 16%nat.

  Lemma ref_cbcs_keeps dec key iv ssps cb sb sample :
    length iv = 16%nat -> covered ssps <= lenN sample ->
    keep_clear (sample_mask ssps (lenN sample)) sample (ref_cbcs E D dec key iv ssps cb sb sample).
  Proof.
    intros Hiv Hc.
    assert (Hnc : (cb * 16) mod 16 = 0) by (apply N.mod_mul; discriminate).
    destruct ssps as [|r t].
    - cbn [sample_mask ref_cbcs]. unfold rep, lenN. rewrite Nat2N.id. apply keep_clear_any.
      symmetry. apply ref_cbcs_range_length; assumption.
    - unfold sample_mask, ref_cbcs.
      refine (walk_keeps
                (fun (_ : unit) r mid => if 0 <? ss_prot r then ref_cbcs_range E D dec key iv mid (cb * 16) (sb * 16) else mid)
                (fun u _ => u)
                (fun _ ranges rest => ref_cbcs_walk E D dec key iv ranges rest (cb * 16) (sb * 16))
                _ _ _ (r :: t) tt sample Hc).
      + reflexivity.
      + intros _ r0 t0. apply ref_cbcs_walk_cons.
      + intros _ r0 mid. destruct (0 <? ss_prot r0); [apply ref_cbcs_range_length; assumption|reflexivity].
  Qed.

  Lemma cbcs_sample_keeps dec key iv ssps cb sb sample c :
    length iv = 16%nat -> key_ok key = true ->
    covered ssps <= lenN sample -> lenN sample < 4294967296 ->
    crypt_sample_cbcs E D dec key iv ssps cb sb sample = Ok c ->
    keep_clear (sample_mask ssps (lenN sample)) sample c.
  Proof.
    intros Hl Hk Hc Hlen H.
    rewrite (crypt_sample_cbcs_ref E D key HE HD dec iv ssps cb sb sample Hk Hl Hc Hlen) in H.
    inversion H; subst c. apply ref_cbcs_keeps; assumption.
  Qed.

  Lemma cbcs_frag_keeps protfunc key iv cb sb : forall samples encs,
    length iv = 16%nat -> key_ok key = true ->
    Forall (sample_ok protfunc) samples ->
    encrypt_samples_cbcs E D protfunc key iv cb sb samples = Ok encs ->
    Forall2 (fun s e => protfunc s = Ok (e_ssps e) /\ keep_clear (sample_mask (e_ssps e) (lenN s)) s (e_data e))
            samples encs.
  Proof.
    induction samples as [|s t IH]; intros encs Hl Hk Hf H.
    - cbn in H. inversion H. constructor.
    - cbn [encrypt_samples_cbcs] in H.
      destruct (protfunc s) as [ssps| | |] eqn:Ep; try discriminate. cbn [rbind] in H.
      destruct (crypt_sample_cbcs E D false key iv ssps cb sb s) as [c| | |] eqn:Ec; try discriminate.
      cbn [rbind] in H.
      destruct (encrypt_samples_cbcs E D protfunc key iv cb sb t) as [r| | |] eqn:Er; try discriminate.
      cbn [rbind] in H. inversion H; subst encs. clear H.
      destruct (Forall_inv Hf) as [Hs Hp]. constructor.
      + split; [exact Ep|]. exact (cbcs_sample_keeps false key iv ssps cb sb s c Hl Hk (Hp ssps Ep) Hs Ec).
      + exact (IH r Hl Hk (Forall_inv_tail Hf) eq_refl).
  Qed.
End CbcsOnly.
