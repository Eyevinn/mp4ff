(* C07CodecProofs.v — the cbcs shape with the slice-header function given by a parser and the size field of what
   it returns (hdr_of; C07Theorems.v puts in the C15 models of avc / hevc.ParseSliceHeader with sh_size / s_size): the
   protected bytes of a video NAL unit start exactly as many bytes in as the parser consumed, the sample crypt over
   these ranges is the reference crypt:skip CBC pattern, and a header that does not parse refuses the sample. *)
From V.lib Require Import Base.
From V.c07 Require Import C07Model C07Spec C07RangeProofs C07CbcsProofs.

(* slice header size as a total function (0 where the header does not parse: never used there) *)
Definition hs_of (hdr : list N -> res N) (n : list N) : N := match hdr n with Ok h => h | _ => 0 end.

Section Generic.
  Variable isvideo : N -> bool.
  Variable hdr : list N -> res N.

  Definition headers_parse (nalus : list (list N)) : Prop :=
    forall n, In n nalus -> first_is_video isvideo n = true -> exists h, hdr n = Ok h /\ h <= lenN n.

  (* ranges + crypt of one sample: the ranges GetXProtectRanges returns protect exactly the bytes after each slice
     header, and cryptSampleCbcs over them is the reference crypt:skip CBC pattern *)
  Lemma cbcs_shape_crypt (E D : list N -> list N -> list N) key iv cb sb nalus :
    (forall k b, length (E k b) = 16%nat) -> (forall k b, length (D k b) = 16%nat) ->
    key_ok key = true -> length iv = 16%nat ->
    wf_nalus_cbcs nalus = true -> lenN (frames nalus) < 4294967296 -> headers_parse nalus ->
    exists r, protect_ranges_r isvideo hdr Cbcs (frames nalus) = Ok r /\
              expand r = spec_mask isvideo (fun n => lenN n - hs_of hdr n) nalus /\
              sumN (map (fun p => ss_clear p + ss_prot p) r) = lenN (frames nalus) /\
              Forall (fun p => ss_clear p < 65536) r /\
              crypt_sample_cbcs E D false key iv r cb sb (frames nalus)
              = Ok (ref_cbcs E D false key iv r cb sb (frames nalus)).
  Proof.
    intros HE HD Hk Hiv Hwf Hlen Hp.
    destruct (cbcs_ranges_mask isvideo hdr (hs_of hdr) nalus Hwf Hlen) as (r & Hr & Hm & Hs & Hc).
    { intros n Hin Hv. destruct (Hp n Hin Hv) as (h & Hh & Hle). unfold hs_of. rewrite Hh. split; [reflexivity|exact Hle]. }
    exists r. repeat split; try assumption.
    apply crypt_sample_cbcs_ref; try assumption. rewrite Hs. apply N.le_refl.
  Qed.

  Lemma cbcs_sample_hdr (E D : list N -> list N -> list N) key iv cb sb nalus :
    (forall k b, length (E k b) = 16%nat) -> (forall k b, length (D k b) = 16%nat) ->
    key_ok key = true -> length iv = 16%nat ->
    wf_nalus_cbcs nalus = true -> lenN (frames nalus) < 4294967296 -> headers_parse nalus ->
    exists r, protect_ranges_r isvideo hdr Cbcs (frames nalus) = Ok r /\
              expand r = spec_mask isvideo (fun n => lenN n - hs_of hdr n) nalus /\
              crypt_sample_cbcs E D false key iv r cb sb (frames nalus)
              = Ok (ref_cbcs E D false key iv r cb sb (frames nalus)).
  Proof.
    intros HE HD Hk Hiv Hwf Hlen Hp.
    destruct (cbcs_shape_crypt E D key iv cb sb nalus HE HD Hk Hiv Hwf Hlen Hp) as (r & Hr & Hm & _ & _ & Hx).
    exists r. split; [exact Hr|]. split; [exact Hm|exact Hx].
  Qed.

  (* the exact outcome when avc/hevc.ParseSliceHeader returns an error for the NAL unit n (truncated slice, unknown
     PPS / SPS id, a "video" NAL unit type without slice header syntax, an empty NAL unit in front of further bytes,
     whose first byte b0 is then taken for the NAL header): the first such NAL unit makes Get(AVC|HEVC)ProtectRanges
     return the error - the sample (and with it the fragment: EncryptFragment returns "get protect ranges: ...") is
     refused, nothing is described wrongly *)
  Lemma cbcs_refused pre n post b0 t :
    (forall m, In m pre -> nonempty m = true) -> headers_parse pre ->
    n ++ frames post = b0 :: t -> isvideo b0 = true -> hdr n = Err ->
    lenN (frames (pre ++ n :: post)) < 4294967296 ->
    protect_ranges_r isvideo hdr Cbcs (frames (pre ++ n :: post)) = Err.
  Proof.
    intros Hne Hp Hb Hv Hh Hlen. rewrite frames_app in *. change (frames (n :: post)) with (frame n ++ frames post) in *.
    apply (protect_ranges_refused isvideo hdr Cbcs (p_cbcs isvideo (hs_of hdr)) (fun _ => True) I pre n (frames post) b0 t
             eq_refl Hb Hv Hh Hlen).
    apply Forall_forall. intros m Hm. split; [|exact I]. specialize (Hne m Hm).
    destruct m as [|c0 u]; [discriminate|]. apply decides_cbcs. intros Hc.
    destruct (Hp _ Hm Hc) as (h & H1 & H2). unfold hs_of. rewrite H1. split; [reflexivity|exact H2].
  Qed.
End Generic.

(* avc_hdr and hevc_hdr are hdr_of the C15 slice-header parser and the size field of what it returns; the size lies
   inside the NAL unit (C07SizeProofs) *)
Section Parser.
  Variable isvideo : N -> bool.
  Context {A : Type} (parse : list N -> res A) (size : A -> N).
  Hypothesis Hsize : forall n a, parse n = Ok a -> size a <= lenN n.

  Definition hdr_of (n : list N) : res N :=
    match parse n with Ok a => Ok (size a) | Err => Err | Panic => Panic | OutOfFuel => OutOfFuel end.

  Lemma hdr_of_bound n h : hdr_of n = Ok h -> h <= lenN n.
  Proof.
    unfold hdr_of. destruct (parse n) as [a| | |] eqn:E; try discriminate.
    intros H. inversion H. subst h. exact (Hsize n a E).
  Qed.

  Lemma parsed_headers (nalus : list (list N)) :
    (forall n, In n nalus -> first_is_video isvideo n = true -> exists a, parse n = Ok a) ->
    headers_parse isvideo hdr_of nalus.
  Proof.
    intros Hp n Hin Hv. destruct (Hp n Hin Hv) as (a & Ha). exists (size a).
    assert (Hh : hdr_of n = Ok (size a)) by (unfold hdr_of; rewrite Ha; reflexivity).
    split; [exact Hh|exact (hdr_of_bound n _ Hh)].
  Qed.

  Lemma cbcs_unparsable_refused pre n post :
    (forall m, In m pre -> nonempty m = true /\ (first_is_video isvideo m = true -> exists a, parse m = Ok a)) ->
    first_is_video isvideo n = true -> parse n = Err ->
    lenN (frames (pre ++ n :: post)) < 4294967296 ->
    protect_ranges_r isvideo hdr_of Cbcs (frames (pre ++ n :: post)) = Err.
  Proof.
    intros Hpre Hv Hh Hlen. destruct n as [|b0 t]; [discriminate|].
    apply (cbcs_refused isvideo hdr_of pre (b0 :: t) post b0 (t ++ frames post)).
    - intros m Hm. exact (proj1 (Hpre m Hm)).
    - apply parsed_headers. intros m Hm. exact (proj2 (Hpre m Hm)).
    - reflexivity.
    - exact Hv.
    - unfold hdr_of. rewrite Hh. reflexivity.
    - exact Hlen.
  Qed.
End Parser.
