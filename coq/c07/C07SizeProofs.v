(* C07SizeProofs.v — the slice-header size the C15 models of avc.ParseSliceHeader / hevc.ParseSliceHeader report
   (sh.Size = uint32(r.NrBytesRead())) never exceeds the length of the NAL unit: the EBSP reader model (coq/c13) only
   advances its byte position over bytes that exist, and the parsers (coq/c15, read-only imports) only touch the reader
   state through its operations.  Invariant `inv` of the reader state, a Hoare-style `post` for the parser monad, one
   rule per reader operation / combinator / loop, and a tactic that walks the parser text. *)
From V.lib Require Import Base.
From V.c13 Require Import C13Model C13StickyProofs.
From V.c15 Require Import C15Model C15HevcModel.

Section Inv.
  Variable d : list N.

  Definition inv (s : rstate) : Prop := rdata s = d /\ rpos s <= lenN d.

  Lemma read_gen_inv esc s n : inv s -> inv (snd (read_gen esc s n)).
  Proof.
    intros [Hd Hp]. unfold inv. rewrite <- Hd in Hp |- *.
    destruct (read_gen_pos_le esc s n Hp) as [H1 H2]. split; assumption.
  Qed.

  Lemma read_inv s n : inv s -> inv (snd (read s n)).
  Proof. apply read_gen_inv. Qed.

  Lemma read_flag_inv s : inv s -> inv (snd (read_flag s)).
  Proof.
    intros H. unfold read_flag. pose proof (read_inv s 1 H) as H1. destruct (read s 1). exact H1.
  Qed.

  Lemma lz_loop_inv fuel : forall s lz r s', inv s -> lz_loop fuel s lz = Some (r, s') -> inv s'.
  Proof.
    induction fuel as [|f IH]; intros s lz r s' H E; [discriminate|].
    cbn [lz_loop] in E. pose proof (read_inv s 1 H) as H1. destruct (read s 1) as [b s1]. cbn [snd] in H1.
    destruct (rerr s1); [inversion E; subst; exact H1|].
    destruct (b =? 1); [inversion E; subst; exact H1|].
    eapply IH; eassumption.
  Qed.

  Lemma read_ue_inv s : inv s -> inv (snd (read_ue s)).
  Proof.
    intros H. unfold read_ue. destruct (rerr s); [exact H|].
    destruct (lz_loop (S (8 * length (rdata s) + 8)) s 0) as [[lz s1]|] eqn:E; [|exact H].
    pose proof (lz_loop_inv _ _ _ _ _ H E) as H1.
    destruct (rerr s1); [exact H1|].
    pose proof (read_inv s1 lz H1) as H2. destruct (read s1 lz) as [e s2]. cbn [snd] in H2.
    destruct (rerr s2); exact H2.
  Qed.

  Lemma read_se_inv s : inv s -> inv (snd (read_se s)).
  Proof.
    intros H. unfold read_se. pose proof (read_ue_inv s H) as H1. destruct (read_ue s) as [u s1]. cbn [snd] in H1.
    destruct (rerr s1); [exact H1|]. destruct (u mod 2 =? 1); exact H1.
  Qed.

  Lemma rset_err_inv s e : inv s -> inv (rset_err s e).
  Proof. intros [H1 H2]. split; assumption. Qed.

  Lemma er_more_inv s : inv s -> inv (snd (er_more s)).
  Proof.
    intros H. unfold er_more, more_rbsp_data. destruct (rerr s); [exact H|].
    pose proof (read_inv s 1 H) as H1. destruct (read s 1) as [b s1]. cbn [snd] in H1.
    destruct (rerr s1); [exact H1|].
    destruct (negb (b =? 1)); [exact H|].
    destruct (more_loop (S (8 * length (rdata s) + 8)) s1) as [[|]|]; exact H.
  Qed.

  Lemma trail_loop_inv fuel : forall s, inv s -> inv (snd (trail_loop fuel s)).
  Proof.
    induction fuel as [|f IH]; intros s H; [exact H|]. cbn [trail_loop].
    pose proof (read_inv s 1 H) as H1. destruct (read s 1) as [b s1]. cbn [snd] in H1.
    destruct (rerr s1); [apply rset_err_inv; exact H1|].
    destruct (b =? 1); [exact H1|]. apply IH. exact H1.
  Qed.

  Lemma er_trailing_inv s : inv s -> inv (snd (er_trailing s)).
  Proof.
    intros H. unfold er_trailing. destruct (rerr s); [exact H|].
    pose proof (read_inv s 1 H) as H1. destruct (read s 1) as [b s1]. cbn [snd] in H1.
    destruct (rerr s1); [exact H1|]. destruct (negb (b =? 1)); [exact H1|].
    apply trail_loop_inv. exact H1.
  Qed.

  Definition post {A} (m : @M rstate A) (Q : A -> Prop) : Prop :=
    forall s a s', inv s -> m s = Ok (a, s') -> inv s' /\ Q a.

  Definition T {A} : A -> Prop := fun _ => True.

  Lemma post_ret {A} (a : A) (Q : A -> Prop) : Q a -> post (ret a) Q.
  Proof. intros H s a' s' Hi E. inversion E; subst. split; assumption. Qed.

  Lemma post_bind {A B} (m : @M rstate A) (k : A -> @M rstate B) (Q1 : A -> Prop) (Q2 : B -> Prop) :
    post m Q1 -> (forall a, Q1 a -> post (k a) Q2) -> post (bind m k) Q2.
  Proof.
    intros Hm Hk s b s' Hi E. unfold bind in E.
    destruct (m s) as [[a s1]| | |] eqn:Em; try discriminate.
    destruct (Hm s a s1 Hi Em) as [Hi1 Hq]. exact (Hk a Hq s1 b s' Hi1 E).
  Qed.

  Lemma post_fail {A} (Q : A -> Prop) : post (@fail rstate A) Q.
  Proof. intros s a s' _ E. discriminate. Qed.
  Lemma post_oof {A} (Q : A -> Prop) : post (@out_of_fuel rstate A) Q.
  Proof. intros s a s' _ E. discriminate. Qed.
  Lemma post_panic {A} (Q : A -> Prop) : post (fun _ : rstate => @Panic (A * rstate)) Q.
  Proof. intros s a s' _ E. discriminate. Qed.

  (* every operation of the reader is `fun s => Ok (g s)` for a state function g that keeps the invariant *)
  Lemma post_step {A} (g : rstate -> A * rstate) : (forall s, inv s -> inv (snd (g s))) -> post (fun s => Ok (g s)) T.
  Proof. intros Hg s a s' Hi E. inversion E as [E']. specialize (Hg s Hi). rewrite E' in Hg. split; [exact Hg|exact I]. Qed.

  Lemma post_rd n : post (rd ER n) T.
  Proof. exact (post_step (fun s => read s n) (fun s => read_inv s n)). Qed.
  Lemma post_rd_flag : post (rd_flag ER) T.
  Proof. exact (post_step read_flag read_flag_inv). Qed.
  Lemma post_rd_ue : post (rd_ue ER) T.
  Proof. exact (post_step read_ue read_ue_inv). Qed.
  Lemma post_rd_se : post (rd_se ER) T.
  Proof. exact (post_step read_se read_se_inv). Qed.
  Lemma post_get_err : post (get_err ER) T.
  Proof. exact (post_step (fun s => (rerr s, s)) (fun s H => H)). Qed.
  Lemma post_set_err : post (set_err ER) T.
  Proof. exact (post_step (fun s => (tt, rset_err s true)) (fun s => rset_err_inv s true)). Qed.
  Lemma post_rd_more : post (rd_more ER) T.
  Proof. exact (post_step er_more er_more_inv). Qed.
  Lemma post_rd_trailing : post (rd_trailing ER) T.
  Proof. exact (post_step er_trailing er_trailing_inv). Qed.
  (* NrBytesRead: at most the length of the NAL unit *)
  Lemma post_get_nbytes : post (get_nbytes ER) (fun nb => nb <= lenN d).
  Proof. intros s a s' Hi E. inversion E; subst. split; [exact Hi|]. destruct Hi as [_ H]. exact H. Qed.

  Lemma post_weaken {A} (m : @M rstate A) (Q : A -> Prop) : post m Q -> post m T.
  Proof. intros H s a s' Hi E. destruct (H s a s' Hi E) as [H1 _]. split; [exact H1|exact I]. Qed.

  Lemma post_rep {A} (body : @M rstate A) : post body T -> forall n, post (rep n body) T.
  Proof.
    intros Hb. induction n as [|k IH]; cbn [rep]; [apply post_ret; exact I|].
    eapply post_bind; [exact Hb|]. intros x _. eapply post_bind; [exact IH|]. intros t _. apply post_ret. exact I.
  Qed.
  Lemma post_rep_n {A} (body : @M rstate A) n : post body T -> post (rep_n n body) T.
  Proof. intros Hb. unfold rep_n. destruct (n <=? loop_bound); [apply post_rep; exact Hb|apply post_oof]. Qed.

  Lemma post_rep_break {A} (body : @M rstate A) : post body T -> forall n, post (rep_break ER n body) T.
  Proof.
    intros Hb. induction n as [|k IH]; cbn [rep_break]; [apply post_ret; exact I|].
    eapply post_bind; [apply post_get_err|]. intros e _. destruct e; [apply post_ret; exact I|].
    eapply post_bind; [exact Hb|]. intros x _. eapply post_bind; [exact IH|]. intros t _. apply post_ret. exact I.
  Qed.
  Lemma post_rep_break_n {A} (body : @M rstate A) n : post body T -> post (rep_break_n ER n body) T.
  Proof. intros Hb. unfold rep_break_n. destruct (n <=? loop_bound); [apply post_rep_break; exact Hb|apply post_oof]. Qed.

  Lemma post_rep_until_err {A} (body : @M rstate A) : post body T -> forall n, post (rep_until_err ER n body) T.
  Proof.
    intros Hb. induction n as [|k IH]; cbn [rep_until_err]; [apply post_ret; exact I|].
    eapply post_bind; [exact Hb|]. intros x _. eapply post_bind; [apply post_get_err|]. intros e _.
    destruct e; [apply post_ret; exact I|]. eapply post_bind; [exact IH|]. intros t _. apply post_ret. exact I.
  Qed.
  Lemma post_rep_until_err_n {A} (body : @M rstate A) n : post body T -> post (rep_until_err_n ER n body) T.
  Proof. intros Hb. unfold rep_until_err_n. destruct (n <=? loop_bound); [apply post_rep_until_err; exact Hb|apply post_oof]. Qed.

  Lemma post_mapM {A B} (f : A -> @M rstate B) : (forall a, post (f a) T) -> forall l, post (mapM f l) T.
  Proof.
    intros Hf. induction l as [|a t IH]; cbn [mapM]; [apply post_ret; exact I|].
    eapply post_bind; [apply Hf|]. intros b _. eapply post_bind; [exact IH|]. intros bs _. apply post_ret. exact I.
  Qed.
End Inv.

(* walks the text of a parser: one rule per construct *)
Ltac pstep :=
  lazymatch goal with
  | |- post _ (bind (get_nbytes _) _) _ => eapply post_bind; [apply post_get_nbytes|cbv beta; intros ? ?]
  | |- post _ (bind _ _) _ => eapply (post_bind _ _ _ (fun _ => True)); [|intros ? _]
  | |- post _ (ret _) (fun _ => True) => apply post_ret; exact I
  | |- post _ (ret _) T => apply post_ret; exact I
  | |- post _ fail _ => apply post_fail
  | |- post _ out_of_fuel _ => apply post_oof
  | |- post _ (fun _ => Panic) _ => apply post_panic
  | |- post _ (rd _ _) _ => apply post_rd
  | |- post _ (rd_flag _) _ => apply post_rd_flag
  | |- post _ (rd_ue _) _ => apply post_rd_ue
  | |- post _ (rd_se _) _ => apply post_rd_se
  | |- post _ (get_err _) _ => apply post_get_err
  | |- post _ (set_err _) _ => apply post_set_err
  | |- post _ (rd_more _) _ => apply post_rd_more
  | |- post _ (rd_trailing _) _ => apply post_rd_trailing
  | |- post _ (rep_n _ _) _ => apply post_rep_n
  | |- post _ (rep_break_n _ _ _) _ => apply post_rep_break_n
  | |- post _ (rep_until_err_n _ _ _) _ => apply post_rep_until_err_n
  | |- post _ (mapM _ _) _ => apply post_mapM; intros ?
  | |- post _ (if ?c then _ else _) _ => destruct c
  | |- post _ (match ?x with _ => _ end) _ => destruct x
  | |- post _ (let _ := _ in _) _ => cbv zeta
  end.

Ltac psolve := repeat first [assumption | pstep].

Section Avc.
  Variable d : list N.

  Lemma post_rplm_loop fuel : forall st, post d (rplm_loop ER fuel st) (fun _ => True).
  Proof.
    induction fuel as [|f IH]; intros [[[a b] c] e]; cbn [rplm_loop]; [apply post_oof|].
    psolve; apply IH.
  Qed.

  Lemma post_mmco_loop fuel : forall st, post d (mmco_loop ER fuel st) (fun _ => True).
  Proof.
    induction fuel as [|f IH]; intros [[[a b] c] e]; cbn [mmco_loop]; [apply post_oof|].
    psolve; apply IH.
  Qed.

  Lemma post_pwt_entry c : post d (pwt_entry ER c) (fun _ => True).
  Proof. unfold pwt_entry. psolve. Qed.
End Avc.

Lemma run_post {A} d (m : @M rstate A) (Q : A -> Prop) a :
  post d m Q -> run m (rinit d) = Ok a -> Q a.
Proof.
  intros Hp H. unfold run in H. destruct (m (rinit d)) as [[a' s']| | |] eqn:E; try discriminate.
  inversion H; subst. apply (Hp (rinit d) a s'); [|exact E]. split; [reflexivity|]. cbn [rpos rinit]. lia.
Qed.

Section AvcSlice.
  Variable d : list N.

  Lemma post_parse_slice_header spsmap ppsmap :
    post d (parse_slice_header ER spsmap ppsmap) (fun h => sh_size h <= lenN d).
  Proof.
    unfold parse_slice_header.
    repeat first [ apply post_rplm_loop | apply post_mmco_loop | apply post_pwt_entry | pstep ].
    all: try (apply post_ret; cbn [sh_size]; eapply N.le_trans; [apply N.mod_le; discriminate|eassumption]).
  Qed.
End AvcSlice.

(* avc.ParseSliceHeader: the size it reports is at most the length of the NAL unit, for EVERY NAL unit (truncated
   ones, garbage) and every parameter-set map *)
Lemma avc_slice_size_le spsmap ppsmap nalu sh :
  parse_slice_er spsmap ppsmap nalu = Ok sh -> sh_size sh <= lenN nalu.
Proof.
  unfold parse_slice_er. intros H.
  exact (run_post nalu _ (fun h => sh_size h <= lenN nalu) sh (post_parse_slice_header nalu spsmap ppsmap) H).
Qed.

Section HevcSlice.
  Variable d : list N.

  Lemma post_hparse_rps_inter_entry : post d (hparse_rps_inter_entry ER) (fun _ => True).
  Proof. unfold hparse_rps_inter_entry. repeat pstep. Qed.

  Lemma post_hparse_st_rps idx num sets : post d (hparse_st_rps ER idx num sets) (fun _ => True).
  Proof. unfold hparse_st_rps. repeat first [apply post_hparse_rps_inter_entry | pstep]. Qed.

  Lemma post_hlt_loop cnt : forall i nlsps sp acc npt, post d (hlt_loop ER cnt i nlsps sp acc npt) (fun _ => True).
  Proof.
    induction cnt as [|c IH]; intros i nlsps sp acc npt; cbn [hlt_loop]; [apply post_ret; exact I|].
    repeat first [apply IH | pstep].
  Qed.

  Lemma post_hparse_rplm is_b l0 l1 npt : post d (hparse_rplm ER is_b l0 l1 npt) (fun _ => True).
  Proof. unfold hparse_rplm. repeat pstep. Qed.

  Lemma post_hparse_pwt_values fl : post d (hparse_pwt_values ER fl) (fun _ => True).
  Proof. unfold hparse_pwt_values. repeat pstep. Qed.

  Lemma post_hparse_pwt_list c cnt : post d (hparse_pwt_list ER c cnt) (fun _ => True).
  Proof. unfold hparse_pwt_list. repeat first [apply post_hparse_pwt_values | pstep]. Qed.

  Lemma post_hparse_pwt is_b c l0 l1 : post d (hparse_pwt ER is_b c l0 l1) (fun _ => True).
  Proof. unfold hparse_pwt. repeat first [apply post_hparse_pwt_list | pstep]. Qed.

  Lemma post_halign_loop fuel : post d (halign_loop ER er_bib fuel) (fun _ => True).
  Proof.
    induction fuel as [|f IH]; cbn [halign_loop]; [apply post_oof|].
    intros s a s' Hi E. destruct (er_bib s <? 8).
    - revert s a s' Hi E. change (post d (bind (rd_flag ER) (fun b : bool => if b then fail else halign_loop ER er_bib f)) (fun _ => True)).
      repeat first [apply IH | pstep].
    - inversion E; subst. split; [exact Hi|exact I].
  Qed.

  Lemma post_hparse_slice_main nt sp pp : post d (hparse_slice_main ER nt sp pp) (fun _ => True).
  Proof.
    unfold hparse_slice_main.
    repeat first [apply post_hparse_st_rps | apply post_hlt_loop | apply post_hparse_rplm | apply post_hparse_pwt | pstep].
  Qed.

  Lemma post_hparse_slice spsmap ppsmap :
    post d (hparse_slice ER er_bib spsmap ppsmap) (fun h => s_size h <= lenN d).
  Proof.
    unfold hparse_slice.
    repeat first [apply post_hparse_slice_main | apply post_halign_loop | pstep].
    all: try (apply post_ret; cbn [s_size]; eapply N.le_trans; [apply N.mod_le; discriminate|eassumption]).
  Qed.
End HevcSlice.

(* hevc.ParseSliceHeader likewise *)
Lemma hevc_slice_size_le spsmap ppsmap nalu sh :
  hparse_slice_er spsmap ppsmap nalu = Ok sh -> s_size sh <= lenN nalu.
Proof.
  unfold hparse_slice_er. intros H.
  exact (run_post nalu _ (fun h => s_size h <= lenN nalu) sh (post_hparse_slice nalu spsmap ppsmap) H).
Qed.
