(* C07WrapProofs.v — Get(AVC|HEVC)ProtectRanges since /repo 2ef93b3 (C07WrapModel.protect_ranges_w: 64-bit bounds
   check of a NAL unit) against the text before it (C07Model.protect_ranges_r):
   (1) on EVERY byte string the new text returns what the old text returned, or refuses;
   (2) on every concatenation of NAL units below 2^32 bytes the two are equal (every theorem about frames carries over);
   (3) for EVERY byte string the new text accepts, the entries add up to the size of the sample, clear counts fit 16
       bits, there is at least one entry - no hypothesis on the layout (what the fragment lemmas ask of the protection
       function, sample_ok, holds of it);
   (4) the loop ends within |sample| iterations for every byte string;
   (5) the old text on a 9-byte sample: the loop never ends / panics. *)
From V.lib Require Import Base.
From V.c07 Require Import C07Model C07Spec C07RangeProofs C07OnlyProofs C07WrapModel.

Section Rel.
  Variable isvideo : N -> bool.
  Variable hdr : list N -> res N.
  Variable sch : scheme.

  (* the two texts differ in the bounds check only; where the 64-bit sum passes it, so does the 32-bit sum *)
  Lemma pr_step_w_eq sample pos cs ce ssps lb :
    slice sample pos (u32 (pos + 4)) = Ok lb -> u32 (pos + 4) + be lb <= lenN sample ->
    pr_step_w isvideo hdr sch sample pos cs ce ssps = pr_step isvideo hdr sch sample pos cs ce ssps.
  Proof.
    intros Hs Hb. unfold pr_step_w, pr_step. rewrite Hs. cbn [rbind]. cbv zeta.
    pose proof (u32_le (u32 (pos + 4) + be lb)).
    replace (lenN sample <? u32 (pos + 4) + be lb) with false by (symmetry; apply N.ltb_ge; exact Hb).
    replace (lenN sample <? u32 (u32 (pos + 4) + be lb)) with false by (symmetry; apply N.ltb_ge; lia).
    reflexivity.
  Qed.

  Lemma pr_step_w_rel sample pos cs ce ssps :
    pr_step_w isvideo hdr sch sample pos cs ce ssps = pr_step isvideo hdr sch sample pos cs ce ssps \/
    pr_step_w isvideo hdr sch sample pos cs ce ssps = Err.
  Proof.
    destruct (slice sample pos (u32 (pos + 4))) as [lb| | |] eqn:Hs.
    2-4: left; unfold pr_step_w, pr_step; rewrite Hs; reflexivity.
    destruct (lenN sample <? u32 (pos + 4) + be lb) eqn:G.
    - right. unfold pr_step_w. rewrite Hs. cbn [rbind]. cbv zeta. rewrite G. reflexivity.
    - left. apply N.ltb_ge in G. exact (pr_step_w_eq sample pos cs ce ssps lb Hs G).
  Qed.

  Lemma pr_loop_w_rel fuel : forall sample pos cs ce ssps,
    pr_loop_w isvideo hdr sch fuel sample pos cs ce ssps = pr_loop_g isvideo hdr sch true fuel sample pos cs ce ssps \/
    pr_loop_w isvideo hdr sch fuel sample pos cs ce ssps = Err.
  Proof.
    induction fuel as [|f IH]; intros sample pos cs ce ssps; [left; reflexivity|].
    cbn [pr_loop_w pr_loop_g]. destruct (pos <? u32 (lenN sample - 4)); [|left; reflexivity].
    destruct (pr_step_w_rel sample pos cs ce ssps) as [E | E]; rewrite E.
    - destruct (pr_step isvideo hdr sch sample pos cs ce ssps) as [[[[p c] e] s]| | |]; cbn [rbind];
        try (left; reflexivity).
      apply IH.
    - right. reflexivity.
  Qed.

  Lemma protect_ranges_w_rel sample :
    protect_ranges_w isvideo hdr sch sample = protect_ranges_r isvideo hdr sch sample \/
    protect_ranges_w isvideo hdr sch sample = Err.
  Proof.
    unfold protect_ranges_w, protect_ranges_r, protect_ranges_g.
    destruct (lenN sample <? 4); [left; reflexivity|]. apply pr_loop_w_rel.
  Qed.

  Lemma pr_loop_w_frames : forall nalus fuel pre cs ce ssps,
    lenN (pre ++ frames nalus) < 4294967296 ->
    pr_loop_w isvideo hdr sch fuel (pre ++ frames nalus) (lenN pre) cs ce ssps
    = pr_loop_g isvideo hdr sch true fuel (pre ++ frames nalus) (lenN pre) cs ce ssps.
  Proof.
    induction nalus as [|n rest IH]; intros fuel pre cs ce ssps Hlen.
    - destruct fuel as [|f]; [reflexivity|]. cbn [pr_loop_w pr_loop_g].
      cbn [frames flat_map] in *. rewrite app_nil_r in *.
      assert (E : (lenN pre <? u32 (lenN pre - 4)) = false).
      { apply N.ltb_ge. pose proof (u32_le (lenN pre - 4)). lia. }
      rewrite E. reflexivity.
    - destruct fuel as [|f]; [reflexivity|]. cbn [pr_loop_w pr_loop_g].
      change (frames (n :: rest)) with (be_bytes4 (lenN n) ++ n ++ frames rest) in *.
      set (sample := pre ++ be_bytes4 (lenN n) ++ n ++ frames rest) in *.
      destruct (lenN pre <? u32 (lenN sample - 4)); [|reflexivity].
      assert (HL : lenN sample = lenN pre + 4 + lenN n + lenN (frames rest))
        by (unfold sample; rewrite !lenN_app, be_bytes4_len; lia).
      assert (Hbe : be (be_bytes4 (lenN n)) = lenN n) by (apply be_bytes4_be; lia).
      rewrite (pr_step_w_eq sample (lenN pre) cs ce ssps (be_bytes4 (lenN n))).
      2: rewrite u32_small by lia; apply (slice_eq sample pre _ (n ++ frames rest)); reflexivity.
      2: rewrite u32_small, Hbe by lia; lia.
      rewrite (pr_step_read isvideo hdr sch sample pre _ n (frames rest) cs ce ssps eq_refl (be_bytes4_len _) Hbe Hlen).
      destruct (idx sample (lenN pre + 4)) as [b0| | |]; cbn [rbind]; try reflexivity.
      destruct (pr_nal isvideo hdr sch n b0 (lenN pre + 4) cs ssps) as [[[[p c] e] s]| | |] eqn:En; cbn [rbind];
        try reflexivity.
      rewrite (pr_nal_pos _ _ _ _ _ _ _ _ _ _ _ _ En).
      replace (lenN pre + 4 + lenN n) with (lenN ((pre ++ be_bytes4 (lenN n)) ++ n))
        by (rewrite !lenN_app, be_bytes4_len; lia).
      unfold sample in *. rewrite !app_assoc in *. apply IH. exact Hlen.
  Qed.

  Lemma protect_ranges_w_frames nalus :
    lenN (frames nalus) < 4294967296 ->
    protect_ranges_w isvideo hdr sch (frames nalus) = protect_ranges_r isvideo hdr sch (frames nalus).
  Proof.
    intros Hlen. unfold protect_ranges_w, protect_ranges_r, protect_ranges_g.
    destruct (lenN (frames nalus) <? 4); [reflexivity|].
    exact (pr_loop_w_frames nalus (S (length (frames nalus))) [] 0 0 [] Hlen).
  Qed.

  Lemma split_at {A} (s : list A) k : k <= lenN s -> exists a b, s = a ++ b /\ lenN a = k.
  Proof.
    intros H. exists (firstn (N.to_nat k) s), (skipn (N.to_nat k) s). split; [symmetry; apply firstn_skipn|].
    unfold lenN in *. rewrite firstn_length. lia.
  Qed.

  (* whatever the bytes: an iteration inside the sample is refused, or what it reads as the length field is the length
     of bytes n that lie inside the sample, and it goes on as pr_nal says *)
  Lemma pr_step_w_any sample pos cs ce ssps :
    lenN sample < 4294967296 -> pos + 4 < lenN sample ->
    pr_step_w isvideo hdr sch sample pos cs ce ssps = Err \/
    exists n b0, pos + 4 + lenN n <= lenN sample /\
      pr_step_w isvideo hdr sch sample pos cs ce ssps = pr_nal isvideo hdr sch n b0 (pos + 4) cs ssps.
  Proof.
    intros Hlen Hpos.
    destruct (split_at sample pos) as (pre & r1 & Hs1 & Hpre); [lia|].
    destruct (split_at r1 4) as (lb & r2 & Hs2 & Hlb); [rewrite Hs1, lenN_app in Hpos; lia|].
    assert (HL : lenN sample = pos + 4 + lenN r2) by (rewrite Hs1, Hs2, !lenN_app; lia).
    assert (Hsl : slice sample pos (u32 (pos + 4)) = Ok lb).
    { rewrite u32_small by lia. apply (slice_eq sample pre lb r2); [rewrite Hs1, Hs2; reflexivity|lia|lia]. }
    destruct (N.le_gt_cases (be lb) (lenN r2)) as [Hb | Hb].
    - destruct (split_at r2 (be lb) Hb) as (n & post & Hs3 & Hn). right.
      destruct r2 as [|b0 t]; [cbn in HL; lia|]. exists n, b0. split; [lia|].
      rewrite (pr_step_w_eq sample pos cs ce ssps lb Hsl) by (rewrite u32_small by lia; lia).
      subst pos. rewrite (pr_step_read isvideo hdr sch sample pre lb n post cs ce ssps); try assumption.
      + rewrite (idx_eq sample (pre ++ lb) b0 t); [reflexivity| |rewrite lenN_app; lia].
        rewrite Hs1, Hs2, <- app_assoc. reflexivity.
      + rewrite Hs1, Hs2, Hs3. reflexivity.
      + symmetry. exact Hn.
    - left. unfold pr_step_w. rewrite Hsl. cbn [rbind]. cbv zeta. rewrite u32_small by lia.
      replace (lenN sample <? pos + 4 + be lb) with true by (symmetry; apply N.ltb_lt; lia). reflexivity.
  Qed.

  (* what (avc|hevc).ParseSliceHeader report as sh.Size lies inside the NAL unit (C07_slice_header_size_bounded) *)
  Hypothesis Hh : forall n h, hdr n = Ok h -> h <= lenN n.

  Lemma pr_nal_ok_decides n b0 pos cs ssps x :
    pr_nal isvideo hdr sch n b0 pos cs ssps = Ok x -> exists p, decides_by isvideo hdr sch b0 n p.
  Proof.
    unfold pr_nal, decides_by. intros H. destruct (isvideo b0); [|exists 0; reflexivity].
    destruct sch; [eexists; reflexivity| |discriminate].
    destruct (hdr n) as [h| | |] eqn:E; try discriminate.
    exists (lenN n - h), h. split; [reflexivity|]. split; [exact (Hh n h E)|reflexivity].
  Qed.

  (* the entries written so far cover the bytes up to the start cs of the clear run in progress *)
  Definition loop_inv (sample : list N) (pos cs : N) (ssps : list ssp) : Prop :=
    covered ssps = cs /\ cs <= pos /\ pos <= lenN sample /\ Forall (entry_ok (fun _ => True)) ssps.

  Lemma pr_step_w_inv sample pos cs ce ssps pos' cs' ce' ssps' :
    lenN sample < 4294967296 -> pos + 4 < lenN sample ->
    loop_inv sample pos cs ssps ->
    pr_step_w isvideo hdr sch sample pos cs ce ssps = Ok (pos', cs', ce', ssps') ->
    loop_inv sample pos' cs' ssps' /\ pos + 4 <= pos'.
  Proof.
    intros Hlen Hpos (Hcov & Hcs & _ & Hok) H.
    destruct (pr_step_w_any sample pos cs ce ssps Hlen Hpos) as [E | (n & b0 & Hn & E)]; rewrite E in H; [discriminate|].
    destruct (pr_nal_ok_decides _ _ _ _ _ _ H) as (p & Hdec). pose proof (decides_by_le _ _ _ _ _ _ Hdec) as Hple.
    destruct (pr_nal_mask isvideo hdr sch (fun _ => True) n b0 (pos + 4) cs ssps p I Hdec I) as (cs1 & ssps1 & E1 & Hcs1 & Hok1 & He);
      [lia|lia|exact Hok|].
    rewrite E1 in H. inversion H; subst pos' cs1 ce' ssps1. clear H E1.
    apply (f_equal (@lenN bool)) in He. rewrite !lenN_app, !rep_lenN, !expand_lenN in He. unfold loop_inv, covered in *.
    repeat split; try assumption; lia.
  Qed.

  Lemma pr_loop_w_cover fuel : forall sample pos cs ce ssps r,
    lenN sample < 4294967296 -> 4 <= lenN sample ->
    loop_inv sample pos cs ssps ->
    pr_loop_w isvideo hdr sch fuel sample pos cs ce ssps = Ok r ->
    covered r = lenN sample /\ Forall (entry_ok (fun _ => True)) r.
  Proof.
    induction fuel as [|f IH]; intros sample pos cs ce ssps r Hlen H4 Hinv H; [discriminate|].
    cbn [pr_loop_w] in H. rewrite (u32_small (lenN sample - 4)) in H by lia.
    destruct (pos <? lenN sample - 4) eqn:Ec.
    - apply N.ltb_lt in Ec.
      destruct (pr_step_w isvideo hdr sch sample pos cs ce ssps) as [[[[pos' cs'] ce'] ssps']| | |] eqn:Es;
        cbn [rbind] in H; try discriminate.
      destruct (pr_step_w_inv sample pos cs ce ssps pos' cs' ce' ssps' Hlen ltac:(lia) Hinv Es) as (Hinv' & _).
      exact (IH sample pos' cs' ce' ssps' r Hlen H4 Hinv' H).
    - rewrite u32_small in H by exact Hlen. destruct Hinv as (Hcov & Hcs & Hpl & Hok).
      destruct (cs <? lenN sample) eqn:E.
      + apply N.ltb_lt in E. rewrite sub32_small in H by lia.
        destruct (append_protect_range_spec (fun _ => True) ssps (lenN sample - cs) 0 I I) as (r' & Hr & He & Hc & _).
        rewrite H in Hr. inversion Hr; subst r'. split; [|exact (Hc Hok)].
        apply (f_equal (@lenN bool)) in He. rewrite !lenN_app, !rep_lenN, !expand_lenN in He. unfold covered in *. lia.
      + apply N.ltb_ge in E. inversion H; subst r. split; [lia|exact Hok].
  Qed.

  Lemma protect_ranges_w_cover sample r :
    lenN sample < 4294967296 ->
    protect_ranges_w isvideo hdr sch sample = Ok r ->
    sumN (map (fun p => ss_clear p + ss_prot p) r) = lenN sample /\ Forall (fun p => ss_clear p < 65536) r /\ r <> [].
  Proof.
    intros Hlen H.
    assert (Hne : r <> []).
    { destruct (protect_ranges_w_rel sample) as [E | E]; rewrite E in H; [|discriminate].
      exact (protect_ranges_r_nonempty isvideo hdr sch sample r Hlen H). }
    unfold protect_ranges_w in H. destruct (lenN sample <? 4) eqn:E; [discriminate|]. apply N.ltb_ge in E.
    destruct (pr_loop_w_cover (S (length sample)) sample 0 0 0 [] r Hlen E) as [Hc Hok];
      [repeat split; try constructor; lia|exact H|].
    split; [exact Hc|]. split; [apply entry_ok_clear; exact Hok|exact Hne].
  Qed.

  Lemma protect_ranges_w_sample_ok sample :
    lenN sample < 4294967296 -> sample_ok (protect_ranges_w isvideo hdr sch) sample.
  Proof.
    intros Hlen. split; [exact Hlen|]. intros r Hr.
    destruct (protect_ranges_w_cover sample r Hlen Hr) as [Hc _]. unfold covered. rewrite Hc. apply N.le_refl.
  Qed.

  Hypothesis Hfuel : forall n, hdr n <> OutOfFuel.

  Lemma pr_nal_fuel n b0 pos cs ssps : pr_nal isvideo hdr sch n b0 pos cs ssps <> OutOfFuel.
  Proof.
    unfold pr_nal.
    assert (Hst : forall c p, (do st <- (if 0 <? p
                                         then do ssps' <- append_protect_range ssps (sub32 c cs) p;
                                              Ok (u32 (c + p), u32 (c + p), ssps')
                                         else Ok (cs, c, ssps));
                               let '(cs0, ce0, ssps0) := st in Ok (pos + lenN n, cs0, ce0, ssps0)) <> OutOfFuel).
    { intros c p. destruct (0 <? p); cbn [rbind]; [|discriminate].
      destruct (append_protect_range_spec (fun _ => True) ssps (sub32 c cs) p I I) as (r' & -> & _). discriminate. }
    destruct (isvideo b0); cbn [rbind]; [|apply Hst].
    destruct sch; [| |discriminate].
    - destruct (112 <=? lenN n + 4); cbn [rbind]; apply Hst.
    - destruct (hdr n) as [h| | |] eqn:Hhd; cbn [rbind]; try discriminate; [apply Hst|].
      exact (False_ind _ (Hfuel n Hhd)).
  Qed.

  Lemma pr_loop_w_fuel fuel : forall sample pos cs ce ssps,
    lenN sample < 4294967296 -> 4 <= lenN sample ->
    loop_inv sample pos cs ssps ->
    lenN sample < pos + 4 * N.of_nat fuel ->
    pr_loop_w isvideo hdr sch fuel sample pos cs ce ssps <> OutOfFuel.
  Proof.
    induction fuel as [|f IH]; intros sample pos cs ce ssps Hlen H4 Hinv Hf.
    - destruct Hinv as (_ & _ & Hpl & _). lia.
    - cbn [pr_loop_w]. rewrite (u32_small (lenN sample - 4)) by lia.
      destruct (pos <? lenN sample - 4) eqn:Ec.
      + apply N.ltb_lt in Ec.
        destruct (pr_step_w isvideo hdr sch sample pos cs ce ssps) as [[[[pos' cs'] ce'] ssps']| | |] eqn:Es;
          cbn [rbind]; try discriminate.
        * destruct (pr_step_w_inv sample pos cs ce ssps pos' cs' ce' ssps' Hlen ltac:(lia) Hinv Es) as (Hinv' & Hadv).
          apply IH; [exact Hlen|exact H4|exact Hinv'|lia].
        * destruct (pr_step_w_any sample pos cs ce ssps Hlen ltac:(lia)) as [E | (n & b0 & _ & E)];
            rewrite E in Es; [discriminate|]. exact (False_ind _ (pr_nal_fuel _ _ _ _ _ Es)).
      + destruct (cs <? u32 (lenN sample)); [|discriminate].
        destruct (append_protect_range_spec (fun _ => True) ssps (sub32 (u32 (lenN sample)) cs) 0 I I) as (r' & -> & _).
        discriminate.
  Qed.

  Lemma protect_ranges_w_terminates sample :
    lenN sample < 4294967296 -> protect_ranges_w isvideo hdr sch sample <> OutOfFuel.
  Proof.
    unfold protect_ranges_w. intros Hlen.
    destruct (lenN sample <? 4) eqn:E; [discriminate|]. apply N.ltb_ge in E.
    apply pr_loop_w_fuel; [exact Hlen|exact E| |unfold lenN; lia].
    repeat split; try constructor; lia.
  Qed.
End Rel.

Definition wrap_hang_sample : list N := [255; 255; 255; 252; 9; 0; 0; 0; 0].    (* AVC AUD with length 2^32-4 *)
Definition wrap_panic_sample : list N := [255; 255; 255; 252; 5; 0; 0; 0; 0].   (* AVC IDR slice, same length *)

Lemma wrap_hang_step :
  pr_step avc_is_video (fun _ => Err) Cenc wrap_hang_sample 0 0 0 [] = Ok (0, 0, 0, []).
Proof. vm_compute. reflexivity. Qed.

(* whatever the number of iterations granted, the old loop has not ended: it is back in its initial state *)
Lemma wrap_hang_old fuel :
  pr_loop_g avc_is_video (fun _ => Err) Cenc true fuel wrap_hang_sample 0 0 0 [] = OutOfFuel.
Proof.
  induction fuel as [|f IH]; [reflexivity|]. cbn [pr_loop_g].
  replace (0 <? u32 (lenN wrap_hang_sample - 4)) with true by (vm_compute; reflexivity).
  rewrite wrap_hang_step. cbn [rbind]. exact IH.
Qed.
