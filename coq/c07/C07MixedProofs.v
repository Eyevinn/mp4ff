(* C07MixedProofs.v — "mixed" fragments (samples with and without sub-sample entries in one fragment).
   With the text of Get(AVC|HEVC)ProtectRanges since /repo 401deba every accepted video sample has at least one
   entry (C07RangeProofs.protect_ranges_r_nonempty), audio samples have none: EncryptFragment can no longer build a
   mixed fragment, and the auxiliary-information theorem holds for every video fragment without a uniformity
   hypothesis (C07_aux_traf_video).  With the text before it a 4-byte sample had no entry and saiz lied
   (C07_aux_mixed_pinned_refuted). *)
From V.lib Require Import Base.
From V.c07 Require Import C07Model C07Spec C07RangeProofs.
From V.c06 Require Import C06SencModel C06SencAuxProofs.

Lemma video_prot_uniform isvideo hdr sch samples :
  Forall (fun s => lenN s < 4294967296) samples ->
  prot_uniform (protect_ranges_r isvideo hdr sch) true samples.
Proof.
  intros Hf s ssps Hin Hp. rewrite Forall_forall in Hf.
  pose proof (protect_ranges_r_nonempty isvideo hdr sch s ssps (Hf s Hin) Hp) as Hne.
  destruct ssps; [congruence|reflexivity].
Qed.

Lemma audio_prot_uniform samples : prot_uniform audio_protect_ranges false samples.
Proof. intros s ssps _ H. inversion H. reflexivity. Qed.

(* a block function for the two runs of the fragment loop over a normal sample and a 4-byte sample: below with the
   current text, in C07_aux_mixed_pinned_refuted with the text before 401deba (there saiz announces 16 bytes for both
   samples - DefaultSampleInfoSize 16, no table - while the senc box written by the repaired SencBox.AddSample,
   C06SencModel.senc_add_r, carries entries of 24 and 18 bytes; reproduced on the real code before the fix) *)
Definition mixed_E (k b : list N) : list N := firstn 16 (b ++ repeat 0 16).

(* the fragment of C07_aux_mixed_pinned_refuted with the current text: two entries of 24 bytes, announced as 24 and 24 *)
Lemma aux_mixed_repaired_example :
  exists encs z s es,
    encrypt_samples_cenc mixed_E (protect_ranges_r avc_is_video (fun _ => Err) Cenc) (repeat 7 16) (repeat 1 16)
      [frames [101 :: repeat 7 139]; [0; 0; 0; 0]] = Ok encs /\
    map e_ssps encs = [[mkSsp 96 48]; [mkSsp 4 0]] /\
    saiz_of saiz_empty encs = Ok z /\ saiz_sizes z = [24; 24] /\
    senc_of_r senc_empty encs = Ok s /\ senc_entries s 0 2 = Ok es /\ map (fun e => lenN e) es = [24; 24].
Proof. vm_compute. do 4 eexists. repeat split; reflexivity. Qed.
