(* C07RangeProofs.v — Get(AVC|HEVC)ProtectRanges + AppendProtectRange against the per-byte mask of the
   property: partition, 16-bit clear counts, shape. *)
From V.lib Require Import Base.
From V.c07 Require Import C07Model C07Spec.

Arguments rep : simpl never.

Lemma u32_small x : x < 4294967296 -> u32 x = x.
Proof. intros H. unfold u32. apply N.mod_small. exact H. Qed.

Lemma u32_le x : u32 x <= x.
Proof. unfold u32. apply N.mod_le. discriminate. Qed.

Lemma u16_small x : x < 65536 -> u16 x = x.
Proof. intros H. unfold u16. apply N.mod_small. exact H. Qed.

Lemma sub32_small a b : b <= a -> a < 4294967296 -> sub32 a b = a - b.
Proof.
  intros H1 H2. unfold sub32. rewrite N.add_sub_swap by exact H1.
  change (a - b + 4294967296) with (a - b + 1 * 4294967296).
  rewrite N.mod_add by discriminate. apply N.mod_small. lia.
Qed.

Lemma land_fff0 x : x < 4294967296 -> N.land x 4294967280 = (x / 16) * 16.
Proof.
  intros H.
  change 4294967280 with (N.ldiff (N.ones 32) (N.ones 4)).
  assert (E : N.land x (N.ldiff (N.ones 32) (N.ones 4)) = N.ldiff (N.land x (N.ones 32)) (N.ones 4)).
  { apply N.bits_inj. intros n. rewrite N.land_spec, !N.ldiff_spec, N.land_spec. apply andb_assoc. }
  rewrite E, N.land_ones. change (2 ^ 32) with 4294967296. rewrite N.mod_small by exact H.
  rewrite N.ldiff_ones_r, N.shiftr_div_pow2, N.shiftl_mul_pow2. reflexivity.
Qed.

Lemma rep_add {A} (x : A) a b : rep x (a + b) = rep x a ++ rep x b.
Proof. unfold rep. rewrite N2Nat.inj_add. apply repeat_app. Qed.

Lemma rep_0 {A} (x : A) : rep x 0 = [].
Proof. reflexivity. Qed.

Lemma rep_lenN {A} (x : A) n : lenN (rep x n) = n.
Proof. unfold rep, lenN. rewrite repeat_length. apply N2Nat.id. Qed.

Lemma expand_app a b : expand (a ++ b) = expand a ++ expand b.
Proof. unfold expand. apply flat_map_app. Qed.

Lemma expand_one c p : expand [mkSsp c p] = rep false c ++ rep true p.
Proof. unfold expand. cbn [flat_map ss_clear ss_prot]. apply app_nil_r. Qed.

Lemma expand_lenN r : lenN (expand r) = sumN (map (fun p => ss_clear p + ss_prot p) r).
Proof.
  induction r as [|p t IH]; [reflexivity|].
  change (expand (p :: t)) with ((rep false (ss_clear p) ++ rep true (ss_prot p)) ++ expand t).
  rewrite !lenN_app, !rep_lenN, IH. reflexivity.
Qed.

(* per-entry invariant: 16-bit clear count, and a predicate Q on the protected count *)
Definition entry_ok (Q : N -> Prop) (p : ssp) : Prop := ss_clear p < 65536 /\ Q (ss_prot p).

Lemma entry_ok_clear l : Forall (entry_ok (fun _ => True)) l <-> Forall (fun e => ss_clear e < 65536) l.
Proof. split; apply Forall_impl; [intros a [Ha _]; exact Ha|intros a Ha; exact (conj Ha I)]. Qed.

Lemma apr_loop_spec (Q : N -> Prop) fuel : forall ssps c p,
  Q 0 -> Q p ->
  c / 65535 < N.of_nat fuel ->
  exists r, apr_loop fuel ssps c p = Ok r /\
            expand r = expand ssps ++ rep false c ++ rep true p /\
            (Forall (entry_ok Q) ssps -> Forall (entry_ok Q) r) /\ r <> [].
Proof.
  induction fuel as [|f IH]; intros ssps c p HQ0 HQp Hf; [lia|].
  cbn [apr_loop]. destruct (65536 <=? c) eqn:E.
  - apply N.leb_le in E.
    destruct (IH (ssps ++ [mkSsp 65535 0]) (c - 65535) p HQ0 HQp) as (r & Hr & He & Hc & Hne); [lia|].
    exists r. split; [exact Hr|]. split; [|split; [|exact Hne]].
    + rewrite He, expand_app, expand_one, rep_0, app_nil_r, <- !app_assoc.
      f_equal. rewrite app_assoc, <- rep_add. do 2 f_equal. lia.
    + intros Hs. apply Hc. apply Forall_app. split; [exact Hs|].
      constructor; [split; [cbn; lia|exact HQ0]|constructor].
  - apply N.leb_gt in E. eexists. split; [reflexivity|]. split; [|split].
    + rewrite expand_app, expand_one, u16_small by exact E. reflexivity.
    + intros Hs. apply Forall_app. split; [exact Hs|].
      constructor; [split; [cbn [ss_clear]; rewrite u16_small by exact E; exact E|exact HQp]|constructor].
    + intros H. symmetry in H. exact (app_cons_not_nil _ _ _ H).
Qed.

Lemma append_protect_range_spec (Q : N -> Prop) ssps c p :
  Q 0 -> Q p ->
  exists r, append_protect_range ssps c p = Ok r /\
            expand r = expand ssps ++ rep false c ++ rep true p /\
            (Forall (entry_ok Q) ssps -> Forall (entry_ok Q) r) /\ r <> [].
Proof. intros H0 Hp. unfold append_protect_range. apply apr_loop_spec; [exact H0|exact Hp|lia]. Qed.

Lemma skipn_lenN_app {A} (a b : list A) : skipn (N.to_nat (lenN a)) (a ++ b) = b.
Proof.
  unfold lenN. rewrite Nat2N.id, skipn_app, skipn_all, Nat.sub_diag. reflexivity.
Qed.

Lemma firstn_lenN_app {A} (a b : list A) : firstn (N.to_nat (lenN a)) (a ++ b) = a.
Proof.
  unfold lenN. rewrite Nat2N.id, firstn_app, firstn_all, Nat.sub_diag. cbn. apply app_nil_r.
Qed.

Lemma slice_eq s pre mid post lo hi :
  s = pre ++ mid ++ post -> lo = lenN pre -> hi = lenN pre + lenN mid -> slice s lo hi = Ok mid.
Proof.
  intros -> -> ->. unfold slice.
  replace (lenN pre + lenN mid <? lenN pre) with false by (symmetry; apply N.ltb_ge; lia).
  replace (lenN (pre ++ mid ++ post) <? lenN pre + lenN mid) with false
    by (symmetry; apply N.ltb_ge; rewrite !lenN_app; lia).
  cbn [orb]. rewrite N.add_comm, N.add_sub, skipn_lenN_app, firstn_lenN_app. reflexivity.
Qed.

Lemma idx_eq s pre b post i : s = pre ++ b :: post -> i = lenN pre -> idx s i = Ok b.
Proof. intros -> ->. unfold idx. rewrite skipn_lenN_app. reflexivity. Qed.

Lemma div256_mod256 x : x / 256 * 256 + x mod 256 = x.
Proof. rewrite N.mul_comm. symmetry. apply N.div_mod. discriminate. Qed.

(* byte k of be_bytes4 is a digit of L in base 256: the value is rebuilt digit by digit *)
Lemma be_bytes4_be L : L < 4294967296 -> be (be_bytes4 L) = L.
Proof.
  intros H. unfold be, be_bytes4, u8. cbn [fold_left].
  change 16777216 with (256 * 256 * 256). change 65536 with (256 * 256).
  rewrite <- !N.div_div by discriminate.
  rewrite (N.mod_small (L / 256 / 256 / 256)).
  - rewrite N.mul_0_l, N.add_0_l, !div256_mod256. reflexivity.
  - repeat (apply N.div_lt_upper_bound; [discriminate|]). exact H.
Qed.

Lemma be_bytes4_len L : lenN (be_bytes4 L) = 4.
Proof. reflexivity. Qed.

Lemma lenN_frame n : lenN (frame n) = 4 + lenN n.
Proof. unfold frame. rewrite lenN_app. reflexivity. Qed.

Lemma frames_app a b : frames (a ++ b) = frames a ++ frames b.
Proof. apply flat_map_app. Qed.

Lemma frames_length nalus : (length nalus <= length (frames nalus))%nat.
Proof.
  induction nalus as [|n t IH]; [apply Nat.le_refl|].
  change (frames (n :: t)) with (be_bytes4 (lenN n) ++ n ++ frames t).
  rewrite !app_length. cbn [be_bytes4 length]. lia.
Qed.

Lemma prot_cenc_le L : prot_cenc L <= L.
Proof. unfold prot_cenc. destruct (112 <=? L + 4) eqn:E; [apply N.leb_le in E|]; lia. Qed.

Lemma prot_cenc_pos L : 112 <= L + 4 -> 0 < prot_cenc L.
Proof. intros H. unfold prot_cenc. apply N.leb_le in H. rewrite H. lia. Qed.

Section RangeProofs.
  Variable isvideo : N -> bool.
  Variable hdr : list N -> res N.
  Variable sch : scheme.

  (* what an iteration does once it has read the length field, the byte b0 behind it and the NAL unit n (pos = the
     position behind the length field): the text of pr_step from there on, in a sample below 2^32 bytes *)
  Definition pr_nal (n : list N) (b0 pos cs : N) (ssps : list ssp) : res (N * N * N * list ssp) :=
    let ce := pos + lenN n in
    do cb <- (if isvideo b0 then
                match sch with
                | Cenc =>
                    if 112 <=? lenN n + 4 then
                      let btp := N.land (sub32 (lenN n + 4) 96) 4294967280 in
                      Ok (if 0 <? btp then sub32 ce btp else ce, btp)
                    else Ok (ce, 0)
                | Cbcs =>
                    do h <- hdr n;
                    let chs := u32 h in
                    Ok (u32 (pos + chs), sub32 (lenN n) chs)
                | SchemeOther => Err
                end
              else Ok (ce, 0));
    let '(ce, btp) := cb in
    do st <- (if 0 <? btp then
                do ssps' <- append_protect_range ssps (sub32 ce cs) btp;
                let cs' := u32 (ce + btp) in
                Ok (cs', cs', ssps')
              else Ok (cs, ce, ssps));
    let '(cs, ce, ssps) := st in
    Ok (pos + lenN n, cs, ce, ssps).

  (* at the start of a length field lb whose value is the length of the bytes n behind it, in a sample below 2^32
     bytes.  lb is any 4 bytes with that value, not only be_bytes4: samples are arbitrary lists of N *)
  Lemma pr_step_read sample pre lb n post cs ce ssps :
    sample = pre ++ lb ++ n ++ post -> lenN lb = 4 -> be lb = lenN n -> lenN sample < 4294967296 ->
    pr_step isvideo hdr sch sample (lenN pre) cs ce ssps =
    (do b0 <- idx sample (lenN pre + 4); pr_nal n b0 (lenN pre + 4) cs ssps).
  Proof.
    intros Hs Hlb Hbe Hlen.
    assert (HL : lenN sample = lenN pre + 4 + lenN n + lenN post) by (rewrite Hs, !lenN_app; lia).
    assert (Hs2 : sample = (pre ++ lb) ++ n ++ post) by (rewrite Hs, <- app_assoc; reflexivity).
    unfold pr_step. rewrite (u32_small (lenN pre + 4)) by lia.
    rewrite (slice_eq sample pre lb (n ++ post) _ _ Hs eq_refl) by (rewrite Hlb; reflexivity).
    cbn [rbind]. rewrite Hbe, (u32_small (lenN pre + 4 + lenN n)), (u32_small (lenN n + 4)) by lia.
    replace (lenN sample <? lenN pre + 4 + lenN n) with false by (symmetry; apply N.ltb_ge; lia).
    rewrite (slice_eq sample (pre ++ lb) n post _ _ Hs2) by (rewrite lenN_app, Hlb; reflexivity).
    reflexivity.
  Qed.

  (* b0 being the byte the code takes for the NAL header of n, p is the number of trailing bytes of n it decides
     to protect *)
  Definition decides_by (b0 : N) (n : list N) (p : N) : Prop :=
    if isvideo b0 then
      match sch with
      | Cenc => p = prot_cenc (lenN n)
      | Cbcs => exists h, hdr n = Ok h /\ h <= lenN n /\ p = lenN n - h
      | SchemeOther => False
      end
    else p = 0.

  (* p is the number of trailing bytes the code decides to protect in NALU n *)
  Definition decides (n : list N) (p : N) : Prop :=
    match n with
    | [] => False
    | b0 :: _ =>
        if isvideo b0 then
          match sch with
          | Cenc => p = prot_cenc (lenN n)
          | Cbcs => exists h, hdr n = Ok h /\ h <= lenN n /\ p = lenN n - h
          | SchemeOther => False
          end
        else p = 0
    end.

  Lemma decides_by_le b0 n p : decides_by b0 n p -> p <= lenN n.
  Proof.
    unfold decides_by. destruct (isvideo b0); [|lia].
    destruct sch; [intros ->; apply prot_cenc_le|intros (h & _ & ? & ->); lia|tauto].
  Qed.

  (* the arithmetic of both branches without wrap-around: p bytes at the end of n become a protected range behind
     the clear run that started at cs, or the clear run goes on *)
  Lemma pr_nal_decides n b0 pos cs ssps p :
    decides_by b0 n p -> pos + lenN n < 4294967296 -> 4 <= pos -> cs <= pos ->
    pr_nal n b0 pos cs ssps =
      (if 0 <? p then
         do ssps' <- append_protect_range ssps (pos + lenN n - p - cs) p;
         Ok (pos + lenN n, pos + lenN n, pos + lenN n, ssps')
       else Ok (pos + lenN n, cs, pos + lenN n, ssps)).
  Proof.
    intros Hdec Hlen H4 Hcs. pose proof (decides_by_le _ _ _ Hdec) as Hple.
    unfold pr_nal, decides_by, prot_cenc in *. set (L := lenN n) in *. destruct (isvideo b0).
    - destruct sch.
      + subst p.
        destruct (112 <=? L + 4) eqn:E; [|reflexivity]. apply N.leb_le in E.
        rewrite (sub32_small (L + 4) 96), land_fff0 by lia.
        set (P := (L + 4 - 96) / 16 * 16) in *.
        cbn [rbind]. replace (0 <? P) with true by (symmetry; apply N.ltb_lt; unfold P; lia).
        rewrite (sub32_small (pos + L) P), (sub32_small (pos + L - P) cs) by lia.
        replace (pos + L - P + P) with (pos + L) by lia. rewrite u32_small by lia.
        destruct (append_protect_range ssps (pos + L - P - cs) P); reflexivity.
      + destruct Hdec as (h & -> & Hhl & ->). cbn [rbind].
        rewrite (u32_small h), (u32_small (pos + h)), (sub32_small L h) by lia.
        destruct (0 <? L - h) eqn:E.
        * apply N.ltb_lt in E. rewrite (sub32_small (pos + h) cs) by lia.
          replace (pos + h + (L - h)) with (pos + L) by lia. rewrite u32_small by lia.
          replace (pos + L - (L - h) - cs) with (pos + h - cs) by lia.
          destruct (append_protect_range ssps (pos + h - cs) (L - h)); reflexivity.
        * apply N.ltb_ge in E. cbn [rbind]. replace (pos + h) with (pos + L) by lia. reflexivity.
      + destruct Hdec.
    - subst p. reflexivity.
  Qed.

  Lemma pr_nal_pos n b0 pos cs ssps p c e s : pr_nal n b0 pos cs ssps = Ok (p, c, e, s) -> p = pos + lenN n.
  Proof.
    unfold pr_nal. intros H.
    destruct (if isvideo b0 then _ else _) as [[ce1 btp]| | |]; cbn [rbind] in H; try discriminate.
    destruct (if 0 <? btp then _ else _) as [[[c1 e1] s1]| | |]; cbn [rbind] in H; try discriminate.
    inversion H. reflexivity.
  Qed.

  (* a video NAL unit whose slice header does not parse (cbcs): the step, hence the whole sample, is refused *)
  Lemma pr_nal_refused n b0 pos cs ssps :
    sch = Cbcs -> isvideo b0 = true -> hdr n = Err -> pr_nal n b0 pos cs ssps = Err.
  Proof. intros Hsch Hv Hh. unfold pr_nal. rewrite Hv, Hsch, Hh. reflexivity. Qed.

  (* the entries written so far followed by the clear run in progress describe the bytes in front of pos; the step
     extends that description by the length field and the NAL unit *)
  Lemma pr_nal_mask (Q : N -> Prop) n b0 pos cs ssps p :
    Q 0 -> decides_by b0 n p -> Q p -> pos + lenN n < 4294967296 -> cs + 4 <= pos -> Forall (entry_ok Q) ssps ->
    exists cs' ssps',
      pr_nal n b0 pos cs ssps = Ok (pos + lenN n, cs', pos + lenN n, ssps') /\
      cs' <= pos + lenN n /\ Forall (entry_ok Q) ssps' /\
      expand ssps' ++ rep false (pos + lenN n - cs')
      = (expand ssps ++ rep false (pos - 4 - cs)) ++ rep false (4 + (lenN n - p)) ++ rep true p.
  Proof.
    intros HQ0 Hdec HQp Hlen Hcs Hok. pose proof (decides_by_le _ _ _ Hdec) as Hple.
    rewrite (pr_nal_decides n b0 pos cs ssps p Hdec Hlen) by lia.
    destruct (0 <? p) eqn:Ep.
    - destruct (append_protect_range_spec Q ssps (pos + lenN n - p - cs) p HQ0 HQp) as (r & -> & He & Hc & _).
      exists (pos + lenN n), r. split; [reflexivity|]. split; [lia|]. split; [exact (Hc Hok)|].
      rewrite N.sub_diag, rep_0, app_nil_r, He, <- !app_assoc. f_equal.
      rewrite !app_assoc, <- !rep_add. do 2 f_equal. lia.
    - apply N.ltb_ge in Ep. exists cs, ssps. split; [reflexivity|]. split; [lia|]. split; [exact Hok|].
      replace p with 0 by lia. rewrite rep_0, app_nil_r, <- app_assoc, <- rep_add. do 2 f_equal. lia.
  Qed.

  Variable P : list N -> N.
  Variable Q : N -> Prop.
  Hypothesis HQ0 : Q 0.

  (* layouts the theorems speak about: every non-empty NAL unit as `decides` says; an EMPTY NAL unit anywhere for
     cenc, as the last NAL unit for every scheme *)
  Fixpoint ok_layout (nalus : list (list N)) : Prop :=
    match nalus with
    | [] => True
    | n :: rest =>
        match n with
        | [] => rest = [] \/ sch = Cenc
        | _ => decides n (P n) /\ Q (P n)
        end /\ ok_layout rest
    end.

  (* a NAL unit the loop steps over, `behind` being the bytes that follow it: the byte taken for its NAL header
     (the first byte of `behind` for an empty NAL unit) leads to a decision that agrees with the prescribed mask *)
  Definition steps_over (n behind : list N) : Prop :=
    exists b0 t p, n ++ behind = b0 :: t /\ decides_by b0 n p /\ Q p /\
                   nalu_mask isvideo P n = rep false (4 + (lenN n - p)) ++ rep true p.

  Lemma steps_over_decided n behind : n <> [] -> decides n (P n) -> Q (P n) -> steps_over n behind.
  Proof.
    destruct n as [|b0 t]; [congruence|]. intros _ Hd HQ. exists b0, (t ++ behind), (P (b0 :: t)).
    split; [reflexivity|]. split; [exact Hd|]. split; [exact HQ|].
    unfold nalu_mask. unfold decides in Hd. destruct (isvideo b0).
    - rewrite rep_add, <- app_assoc. reflexivity.
    - rewrite Hd, N.sub_0_r, rep_0, app_nil_r, rep_add. reflexivity.
  Qed.

  (* an EMPTY NAL unit (length field 0) in front of further bytes, cenc: the byte looked at is the first byte of
     what follows; whatever it is, nothing is protected and the clear run extends over the length field *)
  Lemma steps_over_empty behind : sch = Cenc -> behind <> [] -> steps_over [] behind.
  Proof.
    intros Hsch Hb. destruct behind as [|b0 t]; [congruence|]. exists b0, t, 0.
    split; [reflexivity|]. split; [|split; [exact HQ0|reflexivity]].
    unfold decides_by. rewrite Hsch. destruct (isvideo b0); reflexivity.
  Qed.

  Fixpoint walkable (nalus : list (list N)) (behind : list N) : Prop :=
    match nalus with
    | [] => True
    | n :: t => steps_over n (frames t ++ behind) /\ walkable t behind
    end.

  (* the loop over walkable NAL units: as many iterations as NAL units, and the description of the bytes in front
     of the position grows by their masks *)
  Lemma pr_loop_walk : forall nalus fuel sample pre behind cs ssps,
    sample = pre ++ frames nalus ++ behind ->
    lenN sample < 4294967296 ->
    walkable nalus behind ->
    cs <= lenN pre ->
    Forall (entry_ok Q) ssps ->
    exists cs' ssps',
      pr_loop_g isvideo hdr sch true (length nalus + fuel) sample (lenN pre) cs (lenN pre) ssps
      = pr_loop_g isvideo hdr sch true fuel sample (lenN (pre ++ frames nalus)) cs' (lenN (pre ++ frames nalus)) ssps' /\
      cs' <= lenN (pre ++ frames nalus) /\ Forall (entry_ok Q) ssps' /\
      expand ssps' ++ rep false (lenN (pre ++ frames nalus) - cs')
      = (expand ssps ++ rep false (lenN pre - cs)) ++ spec_mask isvideo P nalus.
  Proof.
    induction nalus as [|n rest IH]; intros fuel sample pre behind cs ssps Hs Hlen Hw Hcs Hok.
    - exists cs, ssps. cbn [frames flat_map spec_mask]. rewrite !app_nil_r.
      split; [reflexivity|]. split; [exact Hcs|]. split; [exact Hok|reflexivity].
    - destruct Hw as [(b0 & t & p & Hb & Hdec & HQp & Hmask) Hw].
      change (frames (n :: rest)) with (frame n ++ frames rest) in *. unfold frame in Hs. rewrite <- !app_assoc in Hs.
      assert (HL : lenN sample = lenN pre + 4 + lenN (b0 :: t) /\ lenN n <= lenN (b0 :: t)).
      { rewrite <- Hb, Hs, !lenN_app, be_bytes4_len. lia. }
      rewrite lenN_cons in HL.
      pose proof (decides_by_le _ _ _ Hdec) as Hple.
      cbn [length Nat.add pr_loop_g]. rewrite u32_small by lia.
      replace (lenN pre <? lenN sample - 4) with true by (symmetry; apply N.ltb_lt; lia).
      rewrite (pr_step_read sample pre (be_bytes4 (lenN n)) n (frames rest ++ behind) cs (lenN pre) ssps Hs
                 (be_bytes4_len _) (be_bytes4_be (lenN n) ltac:(lia)) Hlen).
      rewrite (idx_eq sample (pre ++ be_bytes4 (lenN n)) b0 t)
        by (rewrite ?lenN_app, ?be_bytes4_len, ?Hs, <- ?Hb, <- ?app_assoc; reflexivity).
      cbn [rbind].
      destruct (pr_nal_mask Q n b0 (lenN pre + 4) cs ssps p HQ0 Hdec HQp ltac:(lia) ltac:(lia) Hok)
        as (cs1 & ssps1 & -> & Hcs1 & Hok1 & He1).
      cbn [rbind].
      assert (Hpre' : lenN (pre ++ frame n) = lenN pre + 4 + lenN n) by (rewrite lenN_app, lenN_frame; lia).
      rewrite <- Hpre' in *.
      destruct (IH fuel sample (pre ++ frame n) behind cs1 ssps1) as (cs' & ssps' & Hr & Hcs' & Hok' & He');
        [unfold frame; rewrite Hs, <- !app_assoc; reflexivity|exact Hlen|exact Hw|exact Hcs1|exact Hok1|].
      rewrite <- app_assoc in Hr, Hcs', He'. exists cs', ssps'.
      split; [exact Hr|]. split; [exact Hcs'|]. split; [exact Hok'|].
      rewrite He', He1, N.add_sub. cbn [spec_mask flat_map]. rewrite Hmask, <- !app_assoc. reflexivity.
  Qed.

  (* the loop has reached the end or stands in front of a last, empty NAL unit: what is left is clear tail *)
  Lemma pr_loop_end fuel sample pos cs ssps :
    lenN sample < 4294967296 -> cs <= pos -> pos <= lenN sample -> lenN sample <= pos + 4 ->
    Forall (entry_ok Q) ssps ->
    exists r, pr_loop_g isvideo hdr sch true (S fuel) sample pos cs pos ssps = Ok r /\
              expand r = (expand ssps ++ rep false (pos - cs)) ++ rep false (lenN sample - pos) /\
              Forall (entry_ok Q) r.
  Proof.
    intros Hlen Hcs Hpos Hend Hok. cbn [pr_loop_g]. rewrite !u32_small by lia.
    replace (pos <? lenN sample - 4) with false by (symmetry; apply N.ltb_ge; lia).
    rewrite <- app_assoc, <- rep_add. replace (pos - cs + (lenN sample - pos)) with (lenN sample - cs) by lia.
    destruct (cs <? lenN sample) eqn:E.
    - apply N.ltb_lt in E. rewrite sub32_small by lia.
      destruct (append_protect_range_spec Q ssps (lenN sample - cs) 0 HQ0 HQ0) as (r & Hr & He & Hc & _).
      exists r. split; [exact Hr|]. split; [|exact (Hc Hok)]. rewrite He, rep_0, app_nil_r. reflexivity.
    - apply N.ltb_ge in E. exists ssps. split; [reflexivity|]. split; [|exact Hok].
      replace (lenN sample - cs) with 0 by lia. rewrite rep_0, app_nil_r. reflexivity.
  Qed.

  (* a layout is walkable up to a last empty NAL unit, if there is one *)
  Lemma ok_layout_walkable nalus :
    ok_layout nalus ->
    exists init last, nalus = init ++ last /\ (last = [] \/ last = [[]]) /\ walkable init (frames last).
  Proof.
    induction nalus as [|n rest IH]; intros Hd; [exists [], []; repeat split; left; reflexivity|].
    destruct Hd as [Hn Hrest]. destruct (IH Hrest) as (init & last & -> & Hlast & Hw).
    destruct n as [|b0 t0].
    - destruct (init ++ last) as [|n2 rest'] eqn:El.
      + exists [], [[]]. repeat split. right. reflexivity.
      + destruct Hn as [Hn | Hn]; [discriminate|]. exists ([] :: init), last. rewrite <- El.
        split; [reflexivity|]. split; [exact Hlast|]. split; [|exact Hw].
        apply steps_over_empty; [exact Hn|]. rewrite <- frames_app, El. discriminate.
    - exists ((b0 :: t0) :: init), last. split; [reflexivity|]. split; [exact Hlast|]. split; [|exact Hw].
      apply steps_over_decided; [discriminate|exact (proj1 Hn)|exact (proj2 Hn)].
  Qed.

  Lemma walkable_decided nalus behind :
    Forall (fun n => decides n (P n) /\ Q (P n)) nalus -> walkable nalus behind.
  Proof.
    induction 1 as [|n t [Hd HQ] _ IH]; [exact I|]. split; [|exact IH].
    apply steps_over_decided; [intros ->; exact Hd|exact Hd|exact HQ].
  Qed.

  Lemma protect_ranges_wf nalus :
    nalus <> [] ->
    lenN (frames nalus) < 4294967296 ->
    ok_layout nalus ->
    exists r, protect_ranges_r isvideo hdr sch (frames nalus) = Ok r /\
              expand r = spec_mask isvideo P nalus /\ Forall (entry_ok Q) r.
  Proof.
    intros Hne Hlen Hd. destruct (ok_layout_walkable nalus Hd) as (init & last & -> & Hlast & Hw).
    rewrite frames_app in *. set (sample := frames init ++ frames last) in *.
    assert (H4 : 4 <= lenN sample).
    { unfold sample. destruct init as [|n t]; [destruct Hlast as [-> | ->]; [destruct Hne; reflexivity|cbn; lia]|].
      change (frames (n :: t)) with (frame n ++ frames t). rewrite !lenN_app, lenN_frame. lia. }
    unfold protect_ranges_r, protect_ranges_g.
    replace (lenN sample <? 4) with false by (symmetry; apply N.ltb_ge; exact H4).
    assert (Hfuel : S (length sample) = (length init + S (length sample - length init))%nat).
    { pose proof (frames_length init). unfold sample. rewrite app_length. lia. }
    rewrite Hfuel.
    destruct (pr_loop_walk init (S (length sample - length init)) sample [] (frames last) 0 [] eq_refl Hlen Hw
                (N.le_refl _) (Forall_nil _)) as (cs' & ssps' & Hr & Hcs' & Hok' & He').
    change (lenN (@nil N)) with 0 in *. cbn [app] in *. rewrite Hr. clear Hr.
    destruct (pr_loop_end (length sample - length init) sample (lenN (frames init)) cs' ssps' Hlen Hcs')
      as (r & Hr & He & Hc); [unfold sample; rewrite lenN_app; lia| |exact Hok'|].
    { unfold sample. rewrite lenN_app. destruct Hlast as [-> | ->]; cbn; lia. }
    exists r. split; [exact Hr|]. split; [|exact Hc].
    rewrite He, He'. unfold spec_mask. rewrite flat_map_app. cbn [expand flat_map app]. f_equal.
    unfold sample. rewrite lenN_app, N.add_comm, N.add_sub.
    destruct Hlast as [-> | ->]; reflexivity.
  Qed.

  (* the exact outcome when the slice header of the NAL unit n does not parse, n standing behind decided NAL units
     (b0: the byte taken for its NAL header): Get(AVC|HEVC)ProtectRanges returns the error *)
  Lemma protect_ranges_refused pre0 n behind b0 t :
    sch = Cbcs -> n ++ behind = b0 :: t -> isvideo b0 = true -> hdr n = Err ->
    lenN (frames pre0 ++ frame n ++ behind) < 4294967296 ->
    Forall (fun n => decides n (P n) /\ Q (P n)) pre0 ->
    protect_ranges_r isvideo hdr sch (frames pre0 ++ frame n ++ behind) = Err.
  Proof.
    intros Hsch Hb Hv Hh Hlen Hd. set (sample := frames pre0 ++ frame n ++ behind) in *.
    assert (HL : lenN sample = lenN (frames pre0) + 4 + lenN (b0 :: t) /\ lenN n <= lenN (b0 :: t)).
    { unfold sample, frame. rewrite <- Hb, !lenN_app, be_bytes4_len. lia. }
    rewrite lenN_cons in HL.
    unfold protect_ranges_r, protect_ranges_g.
    replace (lenN sample <? 4) with false by (symmetry; apply N.ltb_ge; lia).
    assert (Hfuel : S (length sample) = (length pre0 + S (length sample - length pre0))%nat).
    { pose proof (frames_length pre0). unfold sample. rewrite app_length. lia. }
    rewrite Hfuel.
    destruct (pr_loop_walk pre0 (S (length sample - length pre0)) sample [] (frame n ++ behind) 0 [] eq_refl Hlen
                (walkable_decided pre0 _ Hd) (N.le_refl _) (Forall_nil _)) as (cs' & ssps' & Hr & _).
    change (lenN (@nil N)) with 0 in Hr. cbn [app] in Hr. rewrite Hr. cbn [pr_loop_g]. rewrite u32_small by lia.
    replace (lenN (frames pre0) <? lenN sample - 4) with true by (symmetry; apply N.ltb_lt; lia).
    assert (Hs : sample = frames pre0 ++ be_bytes4 (lenN n) ++ n ++ behind)
      by (unfold sample, frame; rewrite <- !app_assoc; reflexivity).
    rewrite (pr_step_read sample (frames pre0) (be_bytes4 (lenN n)) n behind _ _ _ Hs
               (be_bytes4_len _) (be_bytes4_be (lenN n) ltac:(lia)) Hlen).
    rewrite (idx_eq sample (frames pre0 ++ be_bytes4 (lenN n)) b0 t)
      by (rewrite ?lenN_app, ?be_bytes4_len, ?Hs, <- ?Hb, <- ?app_assoc; reflexivity).
    cbn [rbind]. rewrite pr_nal_refused by assumption. reflexivity.
  Qed.

  Lemma ok_layout_of_forall nalus :
    Forall (fun n => decides n (P n) /\ Q (P n)) nalus -> ok_layout nalus.
  Proof.
    induction 1 as [|n t Hn _ IH]; [exact I|]. cbn [ok_layout]. split; [|exact IH].
    destruct n; [destruct Hn as [[] _]|exact Hn].
  Qed.
End RangeProofs.

Definition wf_nalus (nalus : list (list N)) : bool :=
  match nalus with [] => false | _ => forallb nonempty nalus end.

Definition first_is_video (isvideo : N -> bool) (n : list N) : bool :=
  match n with b0 :: _ => isvideo b0 | [] => false end.

Lemma nalu_mask_ext isvideo P Q n :
  (first_is_video isvideo n = true -> P n = Q n) -> nalu_mask isvideo P n = nalu_mask isvideo Q n.
Proof.
  intros H. unfold nalu_mask. destruct n as [|b0 t]; [reflexivity|].
  cbn [first_is_video] in H. destruct (isvideo b0); [rewrite H by reflexivity|]; reflexivity.
Qed.

Lemma spec_mask_ext isvideo P Q nalus :
  (forall n, In n nalus -> first_is_video isvideo n = true -> P n = Q n) ->
  spec_mask isvideo P nalus = spec_mask isvideo Q nalus.
Proof.
  induction nalus as [|n t IH]; intros H; [reflexivity|].
  cbn [spec_mask flat_map]. fold (spec_mask isvideo P t) (spec_mask isvideo Q t).
  rewrite (nalu_mask_ext isvideo P Q n), IH; [reflexivity| |].
  - intros m Hm. apply H. right. exact Hm.
  - apply H. left. reflexivity.
Qed.

Lemma nalu_mask_lenN isvideo P n :
  (first_is_video isvideo n = true -> P n <= lenN n) ->
  lenN (nalu_mask isvideo P n) = lenN (frame n).
Proof.
  intros H. unfold nalu_mask. rewrite lenN_frame, lenN_app, rep_lenN.
  destruct n as [|b0 t]; [reflexivity|]. cbn [first_is_video] in H.
  destruct (isvideo b0); [rewrite lenN_app, !rep_lenN; specialize (H eq_refl); lia|rewrite rep_lenN; reflexivity].
Qed.

Lemma spec_mask_lenN isvideo P nalus :
  (forall n, In n nalus -> first_is_video isvideo n = true -> P n <= lenN n) ->
  lenN (spec_mask isvideo P nalus) = lenN (frames nalus).
Proof.
  induction nalus as [|n t IH]; intros H; [reflexivity|].
  cbn [spec_mask frames flat_map]. fold (spec_mask isvideo P t) (frames t).
  rewrite !lenN_app, nalu_mask_lenN, IH; [reflexivity| |].
  - intros m Hm. apply H. right. exact Hm.
  - apply H. left. reflexivity.
Qed.

Lemma wf_nalus_forall nalus : wf_nalus nalus = true -> nalus <> [] /\ forall n, In n nalus -> nonempty n = true.
Proof.
  unfold wf_nalus. destruct nalus as [|n t]; [discriminate|]. intros H. split; [discriminate|].
  apply forallb_forall. exact H.
Qed.

(* the decision of the cenc branch *)
Definition p_cenc (isvideo : N -> bool) (n : list N) : N :=
  if first_is_video isvideo n then prot_cenc (lenN n) else 0.

Lemma ok_layout_cenc isvideo hdr nalus :
  ok_layout isvideo hdr Cenc (p_cenc isvideo) (fun x => x mod 16 = 0) nalus.
Proof.
  induction nalus as [|n t IH]; [exact I|]. cbn [ok_layout]. split; [|exact IH].
  destruct n as [|b0 t0]; [right; reflexivity|].
  unfold decides, p_cenc. cbn [first_is_video]. destruct (isvideo b0); [|split; reflexivity].
  split; [reflexivity|]. unfold prot_cenc. destruct (112 <=? _); [apply N.mod_mul; discriminate|reflexivity].
Qed.

(* EVERY list of NAL units, empty ones (length field 0) included *)
Lemma cenc_ranges_mask isvideo hdr nalus :
  nalus <> [] ->
  lenN (frames nalus) < 4294967296 ->
  exists r, protect_ranges_r isvideo hdr Cenc (frames nalus) = Ok r /\
            expand r = spec_mask isvideo (fun n => prot_cenc (lenN n)) nalus /\
            sumN (map (fun p => ss_clear p + ss_prot p) r) = lenN (frames nalus) /\
            Forall (fun p => ss_clear p < 65536 /\ ss_prot p mod 16 = 0) r.
Proof.
  intros Hne Hlen.
  destruct (protect_ranges_wf isvideo hdr Cenc (p_cenc isvideo) (fun x => x mod 16 = 0) eq_refl nalus Hne Hlen
              (ok_layout_cenc isvideo hdr nalus)) as (r & Hr & He & Hc).
  exists r. split; [exact Hr|].
  assert (He' : expand r = spec_mask isvideo (fun n => prot_cenc (lenN n)) nalus).
  { rewrite He. apply spec_mask_ext. intros n _ Hv. unfold p_cenc. rewrite Hv. reflexivity. }
  split; [exact He'|]. split; [|exact Hc].
  rewrite <- expand_lenN, He'. apply spec_mask_lenN. intros n _ _. apply prot_cenc_le.
Qed.

(* the arithmetic content of the cenc shape *)
Lemma prot_cenc_shape L :
  (0 < prot_cenc L <-> 112 <= L + 4) /\
  prot_cenc L mod 16 = 0 /\
  prot_cenc L <= L /\
  (112 <= L + 4 -> 96 <= L + 4 - prot_cenc L /\ L + 4 - prot_cenc L <= 111) /\
  (127 < L -> 0 < prot_cenc L /\ L - prot_cenc L <= 127).
Proof.
  unfold prot_cenc. destruct (112 <=? L + 4) eqn:E; [apply N.leb_le in E|apply N.leb_gt in E].
  - split; [split; intros; lia|]. split; [apply N.mod_mul; discriminate|]. split; [lia|].
    split; intros; lia.
  - split; [split; intros; lia|]. split; [reflexivity|]. split; [lia|]. split; intros; lia.
Qed.

(* cbcs: hs is the slice-header size function *)
Definition p_cbcs (isvideo : N -> bool) (hs : list N -> N) (n : list N) : N :=
  if first_is_video isvideo n then lenN n - hs n else 0.

(* cbcs layouts: non-empty NAL units, except that the LAST one may be empty (an empty NAL unit in front of further
   bytes makes the code look at the first byte of what follows and hand an empty NAL unit to the slice header
   parser: see cbcs_refused in C07CodecProofs.v) *)
Fixpoint empty_only_last (nalus : list (list N)) : bool :=
  match nalus with
  | [] => true
  | n :: rest => (nonempty n || match rest with [] => true | _ => false end) && empty_only_last rest
  end.

Definition wf_nalus_cbcs (nalus : list (list N)) : bool :=
  match nalus with [] => false | _ => empty_only_last nalus end.

Lemma wf_nalus_cbcs_of_wf nalus : wf_nalus nalus = true -> wf_nalus_cbcs nalus = true.
Proof.
  unfold wf_nalus, wf_nalus_cbcs. destruct nalus as [|n t]; [discriminate|].
  generalize (n :: t). intros l. induction l as [|a l IH]; [reflexivity|].
  cbn [forallb empty_only_last]. intros H. apply andb_prop in H. destruct H as [H1 H2].
  rewrite H1, (IH H2). reflexivity.
Qed.

(* a NAL unit whose slice header (if it is a video NAL unit) parses to a size inside it is decided *)
Lemma decides_cbcs isvideo hdr hs b0 t :
  (isvideo b0 = true -> hdr (b0 :: t) = Ok (hs (b0 :: t)) /\ hs (b0 :: t) <= lenN (b0 :: t)) ->
  decides isvideo hdr Cbcs (b0 :: t) (p_cbcs isvideo hs (b0 :: t)).
Proof.
  intros H. unfold decides, p_cbcs. cbn [first_is_video]. destruct (isvideo b0); [|reflexivity].
  destruct (H eq_refl) as [H1 H2]. exists (hs (b0 :: t)). split; [exact H1|]. split; [exact H2|reflexivity].
Qed.

Lemma cbcs_ranges_mask isvideo hdr hs nalus :
  wf_nalus_cbcs nalus = true ->
  lenN (frames nalus) < 4294967296 ->
  (forall n, In n nalus -> first_is_video isvideo n = true -> hdr n = Ok (hs n) /\ hs n <= lenN n) ->
  exists r, protect_ranges_r isvideo hdr Cbcs (frames nalus) = Ok r /\
            expand r = spec_mask isvideo (fun n => lenN n - hs n) nalus /\
            sumN (map (fun p => ss_clear p + ss_prot p) r) = lenN (frames nalus) /\
            Forall (fun p => ss_clear p < 65536) r.
Proof.
  intros Hwf Hlen Hh.
  assert (Hne : nalus <> []) by (destruct nalus; [discriminate|discriminate]).
  assert (Hwf' : empty_only_last nalus = true) by (destruct nalus; [discriminate|exact Hwf]).
  destruct (protect_ranges_wf isvideo hdr Cbcs (p_cbcs isvideo hs) (fun _ => True) I nalus Hne Hlen) as (r & Hr & He & Hc).
  { clear Hne Hwf Hlen. induction nalus as [|n t IH]; [exact I|].
    cbn [empty_only_last] in Hwf'. apply andb_prop in Hwf'. destruct Hwf' as [H1 H2].
    cbn [ok_layout]. split.
    - destruct n as [|b0 t0].
      + left. cbn [nonempty orb] in H1. destruct t; [reflexivity|discriminate].
      + split; [|exact I]. apply decides_cbcs. exact (Hh (b0 :: t0) (or_introl eq_refl)).
    - apply IH; [|exact H2]. intros m Hm. apply Hh. right. exact Hm. }
  exists r. split; [exact Hr|].
  assert (He' : expand r = spec_mask isvideo (fun n => lenN n - hs n) nalus).
  { rewrite He. apply spec_mask_ext. intros n _ Hv. unfold p_cbcs. rewrite Hv. reflexivity. }
  split; [exact He'|]. split; [|apply entry_ok_clear; exact Hc].
  rewrite <- expand_lenN, He'. apply spec_mask_lenN. intros n _ _. lia.
Qed.

Lemma append_protect_range_nonempty ssps c p r : append_protect_range ssps c p = Ok r -> r <> [].
Proof.
  intros H. destruct (append_protect_range_spec (fun _ => True) ssps c p I I) as (r' & Hr & _ & _ & Hne).
  congruence.
Qed.

Lemma pr_step_nonempty isvideo hdr sch sample pos cs ce ssps pos' cs' ce' ssps' :
  pr_step isvideo hdr sch sample pos cs ce ssps = Ok (pos', cs', ce', ssps') ->
  ssps' <> [] \/ (cs' = cs /\ ssps' = ssps).
Proof.
  unfold pr_step. intros H.
  destruct (slice sample pos (u32 (pos + 4))) as [lb| | |]; cbn [rbind] in H; try discriminate.
  destruct (lenN sample <? u32 (u32 (pos + 4) + be lb)); [discriminate|].
  destruct (idx sample (u32 (pos + 4))) as [b0| | |]; cbn [rbind] in H; try discriminate.
  match type of H with (do cb <- ?X; _) = _ => destruct X as [[ce1 btp]| | |] end; cbn [rbind] in H; try discriminate.
  destruct (0 <? btp).
  - destruct (append_protect_range ssps (sub32 ce1 cs) btp) as [r1| | |] eqn:Ea; cbn [rbind] in H; try discriminate.
    inversion H; subst. left. exact (append_protect_range_nonempty _ _ _ _ Ea).
  - cbn [rbind] in H. inversion H; subst. right. split; reflexivity.
Qed.

Lemma pr_loop_nonempty isvideo hdr sch fuel : forall sample pos cs ce ssps r,
  lenN sample < 4294967296 -> 4 <= lenN sample ->
  ssps <> [] \/ cs = 0 ->
  pr_loop_g isvideo hdr sch true fuel sample pos cs ce ssps = Ok r -> r <> [].
Proof.
  induction fuel as [|f IH]; intros sample pos cs ce ssps r Hlen H4 Hinv H; [discriminate|].
  cbn [pr_loop_g] in H. destruct (pos <? u32 (lenN sample - 4)).
  - destruct (pr_step isvideo hdr sch sample pos cs ce ssps) as [[[[pos' cs'] ce'] ssps']| | |] eqn:Es;
      cbn [rbind] in H; try discriminate.
    apply pr_step_nonempty in Es. eapply IH; [exact Hlen|exact H4| |exact H].
    destruct Es as [Es | [-> ->]]; [left; exact Es|exact Hinv].
  - rewrite u32_small in H by exact Hlen.
    destruct (cs <? lenN sample) eqn:E.
    + exact (append_protect_range_nonempty _ _ _ _ H).
    + apply N.ltb_ge in E. destruct Hinv as [Hs | ->]; [inversion H; subst; exact Hs|lia].
Qed.

(* the repaired text never returns an empty list: every accepted video sample has a sub-sample entry, so the
   samples of a video fragment are uniform for SaizBox.AddSampleInfo / SencBox.AddSample *)
Lemma protect_ranges_r_nonempty isvideo hdr sch sample r :
  lenN sample < 4294967296 ->
  protect_ranges_r isvideo hdr sch sample = Ok r -> r <> [].
Proof.
  unfold protect_ranges_r, protect_ranges_g. intros Hlen H.
  destruct (lenN sample <? 4) eqn:E; [discriminate|]. apply N.ltb_ge in E.
  eapply pr_loop_nonempty; [exact Hlen|exact E| |exact H]. right. reflexivity.
Qed.

(* the text before the repair did: a 4-byte sample got no entry (and was then encrypted whole by CryptSampleCenc,
   and saiz announced the default size 16 for senc entries of 18 and 24 bytes) *)
Lemma protect_ranges_pinned_empty isvideo hdr sch :
  protect_ranges isvideo hdr sch [0; 0; 0; 0] = Ok [] /\
  protect_ranges_r isvideo hdr sch [0; 0; 0; 0] = Ok [mkSsp 4 0].
Proof. split; reflexivity. Qed.
