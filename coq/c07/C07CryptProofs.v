(* C07CryptProofs.v — CryptSampleCenc equals the reference CTR keystream xor-ed over the protected bytes
   in order, identity elsewhere; IV chain of EncryptFragment; no counter block reuse. *)
From V.lib Require Import Base.
From V.c07 Require Import C07Model C07Spec C07IvProofs C07RangeProofs.

Definition M128 : N := 340282366920938463463374607431768211456.
Lemma M128_pow : 2 ^ 128 = M128. Proof. reflexivity. Qed.
Lemma M128_256 : 256 ^ 16 = M128. Proof. reflexivity. Qed.

Lemma be_bytes_length k x : length (be_bytes k x) = k.
Proof. revert x. induction k as [|j IH]; intros x; [reflexivity|]. cbn [be_bytes]. rewrite app_length, IH. cbn. lia. Qed.

Lemma be_bytes_ok k x : bytes_ok (be_bytes k x) = true.
Proof.
  revert x. induction k as [|j IH]; intros x; [reflexivity|]. cbn [be_bytes].
  rewrite bytes_ok_app, IH, bytes_ok_cons. cbn [bytes_ok forallb]. unfold byte_ok.
  assert (x mod 256 < 256) by (apply N.mod_lt; discriminate). apply N.ltb_lt in H. rewrite H. reflexivity.
Qed.

Lemma be_be_bytes k x : be (be_bytes k x) = x mod 256 ^ N.of_nat k.
Proof.
  revert x. induction k as [|j IH]; intros x.
  - cbn. rewrite N.mod_1_r. reflexivity.
  - cbn [be_bytes]. rewrite be_app1, IH.
    replace (N.of_nat (S j)) with (N.succ (N.of_nat j)) by lia. rewrite N.pow_succ_r'.
    pose proof (pow256_pos (N.of_nat j)).
    rewrite (N.mod_mul_r x 256 (256 ^ N.of_nat j)) by lia. lia.
Qed.

Lemma be_bytes_be l : bytes_ok l = true -> be_bytes (length l) (be l) = l.
Proof.
  intros H. apply be_inj.
  - apply be_bytes_length.
  - apply be_bytes_ok.
  - exact H.
  - rewrite be_be_bytes. apply N.mod_small, be_bound, H.
Qed.

Lemma be_bound16 l : length l = 16%nat -> bytes_ok l = true -> be l < M128.
Proof.
  intros Hl H. apply be_bound in H. unfold lenN in H. rewrite Hl in H. exact H.
Qed.

Lemma list_map_nth {A} (d : A) (l : list A) : l = map (fun j => nth j l d) (seq 0 (length l)).
Proof.
  induction l as [|a t IH]; [reflexivity|].
  cbn [length seq map nth]. f_equal. rewrite <- seq_shift, map_map. exact IH.
Qed.

Lemma xorl_length a b : length a = length b -> length (xorl a b) = length a.
Proof. intros H. unfold xorl. rewrite map_length, combine_length, <- H. apply Nat.min_id. Qed.

Lemma lenN_firstn {A} (l : list A) n : n <= lenN l -> lenN (firstn (N.to_nat n) l) = n.
Proof. intros H. unfold lenN in *. rewrite firstn_length. lia. Qed.

Lemma lenN_skipn {A} (l : list A) n : lenN (skipn (N.to_nat n) l) = lenN l - n.
Proof. unfold lenN. rewrite skipn_length. lia. Qed.

(* the next sub-sample: c clear bytes, p protected bytes, the rest *)
Lemma split3 {A} (l : list A) c p :
  c + p <= lenN l -> exists r1 mid post, l = r1 ++ mid ++ post /\ lenN r1 = c /\ lenN mid = p.
Proof.
  intros H. exists (firstn (N.to_nat c) l), (firstn (N.to_nat p) (skipn (N.to_nat c) l)), (skipn (N.to_nat p) (skipn (N.to_nat c) l)).
  rewrite !firstn_skipn. split; [reflexivity|]. split; apply lenN_firstn; rewrite ?lenN_skipn; lia.
Qed.

Lemma splice_mid pre mid post o :
  length o = length mid ->
  splice (pre ++ mid ++ post) (lenN pre) o = pre ++ o ++ post.
Proof.
  intros Hl. unfold splice. rewrite firstn_lenN_app. f_equal. f_equal.
  unfold lenN. rewrite Nat2N.id, Hl, skipn_app, skipn_all2 by lia.
  replace (length pre + length mid - length pre)%nat with (length mid) by lia.
  rewrite skipn_app, skipn_all, Nat.sub_diag. reflexivity.
Qed.

Section Ctr.
  Variable E : list N -> list N -> list N.
  Variable key iv : list N.
  Hypothesis Hblk : forall k b, length (E k b) = 16%nat.
  Hypothesis Hivl : length iv = 16%nat.
  Hypothesis Hivb : bytes_ok iv = true.

  Lemma ks_seg_length m k : length (ks_seg E key iv m k) = k.
  Proof. unfold ks_seg. rewrite map_length, seq_length. reflexivity. Qed.

  Lemma ks_seg_S m k : ks_seg E key iv m (S k) = ks_byte E key iv m :: ks_seg E key iv (m + 1) k.
  Proof.
    unfold ks_seg. cbn [seq map]. rewrite N.add_0_r. f_equal.
    rewrite <- seq_shift, map_map. apply map_ext. intros j. f_equal. lia.
  Qed.

  Lemma ks_seg_app m a b :
    ks_seg E key iv m (a + b) = ks_seg E key iv m a ++ ks_seg E key iv (m + N.of_nat a) b.
  Proof.
    revert m. induction a as [|a IH]; intros m.
    - cbn [Nat.add]. rewrite N.add_0_r. reflexivity.
    - cbn [Nat.add]. rewrite !ks_seg_S, IH. cbn [app]. do 3 f_equal. lia.
  Qed.

  (* a whole block of keystream *)
  Lemma ks_seg_block m : m mod 16 = 0 -> ks_seg E key iv m 16 = ref_block E key iv (m / 16).
  Proof.
    intros Hm. rewrite (list_map_nth 0 (ref_block E key iv (m / 16))).
    unfold ref_block at 2. rewrite Hblk. unfold ks_seg. apply map_ext_in.
    intros j Hj. apply in_seq in Hj. unfold ks_byte.
    replace ((m + N.of_nat j) / 16) with (m / 16) by lia.
    replace ((m + N.of_nat j) mod 16) with (N.of_nat j) by lia.
    rewrite Nat2N.id. reflexivity.
  Qed.

  (* the CTR stream state st stands at keystream offset m *)
  Definition at_offset (st : ctr_st) (m : N) : Prop :=
    exists k : nat, (k < 16)%nat /\ (m + N.of_nat k) mod 16 = 0 /\
                    c_buf st = ks_seg E key iv m k /\
                    c_ctr st = be_bytes 16 ((be iv + (m + N.of_nat k) / 16) mod M128).

  Lemma at_offset_init : at_offset (mkCtr iv []) 0.
  Proof.
    exists 0%nat. split; [lia|]. split; [reflexivity|]. split; [reflexivity|].
    cbn [c_ctr]. change ((0 + N.of_nat 0) / 16) with 0. rewrite N.add_0_r.
    rewrite N.mod_small by (apply be_bound16; assumption).
    rewrite <- Hivl. symmetry. apply be_bytes_be. exact Hivb.
  Qed.

  Lemma ctr_inc x :
    increment_iv_inplace (be_bytes 16 (x mod M128)) 1 = be_bytes 16 ((x + 1) mod M128).
  Proof.
    apply be_inj.
    - rewrite increment_iv_inplace_length, !be_bytes_length. reflexivity.
    - apply increment_iv_inplace_bytes_ok, be_bytes_ok.
    - apply be_bytes_ok.
    - rewrite iv_increment_inplace by apply be_bytes_ok.
      unfold lenN. rewrite be_bytes_length. change (2 ^ (8 * N.of_nat 16)) with M128.
      rewrite !be_be_bytes. change (256 ^ N.of_nat 16) with M128.
      rewrite !N.mod_mod by discriminate.
      rewrite N.add_mod_idemp_l by discriminate. reflexivity.
  Qed.

  Lemma next_ks_at st m :
    at_offset st m ->
    exists st', next_ks E key st = (ks_byte E key iv m, st') /\ at_offset st' (m + 1).
  Proof.
    intros (k & Hk & Hmod & Hbuf & Hctr). unfold next_ks. destruct k as [|k'].
    - (* buffer empty: a new block *)
      cbn [N.of_nat] in *. rewrite N.add_0_r in *. rewrite Hbuf. cbn [ks_seg seq map].
      pose proof (ks_seg_block m Hmod) as Hb. unfold ref_block in Hb. change (2 ^ 128) with M128 in Hb. rewrite <- Hctr in Hb.
      rewrite ks_seg_S in Hb. rewrite <- Hb.
      eexists. split; [reflexivity|].
      exists 15%nat. split; [lia|]. split; [lia|]. split; [reflexivity|].
      cbn [c_ctr]. rewrite Hctr, ctr_inc. do 2 f_equal. lia.
    - rewrite Hbuf, ks_seg_S. eexists. split; [reflexivity|].
      exists k'. split; [lia|]. split; [rewrite <- Hmod; f_equal; lia|]. split; [reflexivity|].
      cbn [c_ctr]. rewrite Hctr. do 3 f_equal. lia.
  Qed.

  Lemma xor_stream_at : forall data st m,
    at_offset st m ->
    exists st', xor_stream E key st data = (xorl data (ks_seg E key iv m (length data)), st') /\
                at_offset st' (m + lenN data).
  Proof.
    induction data as [|b t IH]; intros st m Hat.
    - exists st. split; [reflexivity|]. rewrite lenN_nil, N.add_0_r. exact Hat.
    - cbn [xor_stream]. destruct (next_ks_at st m Hat) as (st1 & H1 & Hat1). rewrite H1.
      destruct (IH st1 (m + 1) Hat1) as (st2 & H2 & Hat2). rewrite H2.
      exists st2. split.
      + cbn [length]. rewrite ks_seg_S. reflexivity.
      + rewrite lenN_cons. replace (m + (1 + lenN t)) with (m + 1 + lenN t) by lia. exact Hat2.
  Qed.

  Lemma xor_stream_length data st : length (fst (xor_stream E key st data)) = length data.
  Proof.
    revert st. induction data as [|b t IH]; intros st; [reflexivity|].
    cbn [xor_stream]. destruct (next_ks E key st) as [k st1]. specialize (IH st1).
    destruct (xor_stream E key st1 t) as [o st2]. cbn [fst length] in *. rewrite IH. reflexivity.
  Qed.

  Lemma ref_walk_cons m r t r1 mid post :
    lenN r1 = ss_clear r -> lenN mid = ss_prot r ->
    ref_walk E key iv m (r :: t) (r1 ++ mid ++ post)
    = r1 ++ xorl mid (ks_seg E key iv m (length mid)) ++ ref_walk E key iv (m + ss_prot r) t post.
  Proof.
    intros H1 H2. cbn [ref_walk]. rewrite <- H1, <- H2, !skipn_lenN_app, !firstn_lenN_app.
    unfold lenN. rewrite Nat2N.id. reflexivity.
  Qed.

  Lemma cenc_loop_ref : forall ssps st m pos sample done rest,
    sample = done ++ rest -> pos = lenN done -> at_offset st m ->
    sumN (map (fun p => ss_clear p + ss_prot p) ssps) <= lenN rest ->
    lenN sample < 4294967296 ->
    cenc_loop E key st ssps pos sample = Ok (done ++ ref_walk E key iv m ssps rest).
  Proof.
    induction ssps as [|ss t IH]; intros st m pos sample done rest Hs Hp Hat Hsum Hlen.
    - cbn [cenc_loop ref_walk]. rewrite Hs. reflexivity.
    - cbn [map sumN] in Hsum.
      destruct (split3 rest (ss_clear ss) (ss_prot ss)) as (r1 & mid & post & -> & Hr1 & Hmid); [lia|].
      rewrite (ref_walk_cons m ss t r1 mid post Hr1 Hmid). cbn [cenc_loop].
      rewrite !lenN_app in Hsum. rewrite Hs, !lenN_app in Hlen.
      replace (if 0 <? ss_clear ss then u32 (pos + ss_clear ss) else pos) with (lenN (done ++ r1))
        by (rewrite lenN_app; destruct (0 <? ss_clear ss) eqn:Ec; [rewrite u32_small; lia|apply N.ltb_ge in Ec; lia]).
      assert (Hs' : sample = (done ++ r1) ++ mid ++ post) by (rewrite Hs, <- app_assoc; reflexivity).
      destruct (0 <? ss_prot ss) eqn:Ep.
      + rewrite u32_small by (rewrite lenN_app; lia).
        rewrite (slice_eq sample (done ++ r1) mid post _ _ Hs' eq_refl) by (rewrite Hmid; reflexivity).
        cbn [rbind]. destruct (xor_stream_at mid st m Hat) as (st' & -> & Hat').
        set (o := xorl mid (ks_seg E key iv m (length mid))).
        assert (Hol : lenN o = lenN mid) by (unfold lenN, o; rewrite xorl_length; [reflexivity|]; rewrite ks_seg_length; reflexivity).
        rewrite Hs', splice_mid by (unfold lenN in Hol; lia).
        rewrite (IH st' (m + ss_prot ss) _ _ ((done ++ r1) ++ o) post).
        * rewrite <- !app_assoc. reflexivity.
        * rewrite <- !app_assoc. reflexivity.
        * rewrite (lenN_app _ o). lia.
        * rewrite <- Hmid. exact Hat'.
        * lia.
        * rewrite !lenN_app. lia.
      + apply N.ltb_ge in Ep. destruct mid as [|x mid]; [|rewrite lenN_cons in Hmid; lia].
        rewrite (IH st m _ sample (done ++ r1) post Hs' eq_refl Hat); [|lia|rewrite Hs, !lenN_app; lia].
        replace (ss_prot ss) with 0 by lia. rewrite N.add_0_r, <- app_assoc. reflexivity.
  Qed.

  Lemma crypt_sample_cenc_ref ssps sample :
    key_ok key = true ->
    sumN (map (fun p => ss_clear p + ss_prot p) ssps) <= lenN sample ->
    lenN sample < 4294967296 ->
    crypt_sample_cenc E key iv ssps sample = Ok (ref_cenc E key iv ssps sample).
  Proof.
    intros Hk Hsum Hlen. unfold crypt_sample_cenc, ref_cenc. rewrite Hk. cbn [negb].
    assert (Hl : (lenN iv =? 16) = true) by (apply N.eqb_eq; unfold lenN; rewrite Hivl; reflexivity).
    rewrite Hl. cbn [negb].
    destruct ssps as [|ss t].
    - destruct (xor_stream_at sample (mkCtr iv []) 0 at_offset_init) as (st' & Hx & _).
      rewrite Hx. reflexivity.
    - apply (cenc_loop_ref (ss :: t) (mkCtr iv []) 0 0 sample [] sample); try reflexivity; try assumption.
      apply at_offset_init.
  Qed.
End Ctr.

Lemma slice_ok s lo hi seg :
  slice s lo hi = Ok seg -> length seg = N.to_nat (hi - lo) /\ lo <= hi /\ hi <= lenN s.
Proof.
  unfold slice. destruct (hi <? lo) eqn:E1; [discriminate|]. destruct (lenN s <? hi) eqn:E2; [discriminate|].
  cbn [orb]. intros H. inversion H; subst. apply N.ltb_ge in E1, E2.
  rewrite firstn_length, skipn_length. unfold lenN in *. lia.
Qed.

Lemma splice_length s pos o :
  (N.to_nat pos + length o <= length s)%nat -> length (splice s pos o) = length s.
Proof.
  intros H. unfold splice. rewrite !app_length, firstn_length, skipn_length. lia.
Qed.

Section Len.
  Variable E : list N -> list N -> list N.

  Lemma cenc_loop_length key : forall ssps st pos sample c,
    cenc_loop E key st ssps pos sample = Ok c -> length c = length sample.
  Proof.
    induction ssps as [|ss t IH]; intros st pos sample c H.
    - cbn in H. inversion H. reflexivity.
    - cbn [cenc_loop] in H.
      set (pos' := if 0 <? ss_clear ss then u32 (pos + ss_clear ss) else pos) in *.
      destruct (0 <? ss_prot ss).
      + destruct (slice sample pos' (u32 (pos' + ss_prot ss))) as [seg| | |] eqn:Es; try discriminate.
        cbn [rbind] in H. apply slice_ok in Es. destruct Es as (Hl & Hlo & Hhi).
        pose proof (xor_stream_length E key seg st) as Hx.
        destruct (xor_stream E key st seg) as [o st']. cbn [fst] in Hx.
        apply IH in H. rewrite H. apply splice_length. unfold lenN in Hhi. lia.
      + apply IH in H. exact H.
  Qed.

  Lemma crypt_sample_cenc_length key iv ssps sample c :
    crypt_sample_cenc E key iv ssps sample = Ok c -> length c = length sample.
  Proof.
    unfold crypt_sample_cenc. destruct (negb (key_ok key)); [discriminate|].
    destruct (negb (lenN iv =? 16)); [discriminate|].
    destruct ssps as [|ss t].
    - intros H. inversion H. apply xor_stream_length.
    - apply cenc_loop_length.
  Qed.
End Len.

(* cipher blocks incrementIV accounts for in an encrypted sample *)
Definition blocks_of (e : enc_sample) : N := nr_enc_blocks (e_ssps e) (lenN (e_data e)).

(* keystream bytes consumed by an encrypted sample *)
Definition prot_total (e : enc_sample) : N :=
  match e_ssps e with
  | [] => lenN (e_data e)
  | l => sumN (map ss_prot l)
  end.

Definition aligned (e : enc_sample) : Prop := Forall (fun p => ss_prot p mod 16 = 0) (e_ssps e).

Lemma sum_div16 l :
  Forall (fun p => ss_prot p mod 16 = 0) l ->
  16 * sumN (map (fun s => ss_prot s / 16) l) = sumN (map ss_prot l).
Proof.
  induction 1 as [|p t Hp _ IH]; [reflexivity|]. cbn [map sumN]. lia.
Qed.

(* every keystream byte of the sample lies in one of its blocks_of counter blocks *)
Lemma prot_total_blocks e : aligned e -> prot_total e <= 16 * blocks_of e /\ 16 * blocks_of e < prot_total e + 16.
Proof.
  unfold aligned, prot_total, blocks_of, nr_enc_blocks. intros H.
  destruct (e_ssps e) as [|p t] eqn:Es; [lia|].
  rewrite (sum_div16 _ H). lia.
Qed.

Section Chain.
  Variable E : list N -> list N -> list N.
  Variable protfunc : list N -> res (list ssp).

  Lemma encrypt_samples_cenc_cons key iv s t encs :
    encrypt_samples_cenc E protfunc key iv (s :: t) = Ok encs ->
    exists ssps c r, protfunc s = Ok ssps /\ crypt_sample_cenc E key iv ssps s = Ok c /\
                     encrypt_samples_cenc E protfunc key (increment_iv iv ssps (lenN s)) t = Ok r /\
                     encs = mkEnc iv ssps c :: r.
  Proof.
    cbn [encrypt_samples_cenc]. intros H.
    destruct (protfunc s) as [ssps| | |] eqn:Ep; try discriminate. cbn [rbind] in H.
    destruct (crypt_sample_cenc E key iv ssps s) as [c| | |] eqn:Ec; try discriminate. cbn [rbind] in H.
    destruct (encrypt_samples_cenc E protfunc key (increment_iv iv ssps (lenN s)) t) as [r| | |] eqn:Er;
      try discriminate.
    cbn [rbind] in H. inversion H. exists ssps, c, r. repeat split; assumption.
  Qed.

  Lemma iv_chain key : forall samples iv encs,
    length iv = 16%nat -> bytes_ok iv = true ->
    encrypt_samples_cenc E protfunc key iv samples = Ok encs ->
    forall i ei, nth_error encs i = Some ei ->
      length (e_iv ei) = 16%nat /\ bytes_ok (e_iv ei) = true /\
      be (e_iv ei) = (be iv + sumN (map blocks_of (firstn i encs))) mod M128.
  Proof.
    induction samples as [|s t IH]; intros iv encs Hl Hb H i ei Hi.
    - cbn in H. inversion H; subst. destruct i; discriminate.
    - destruct (encrypt_samples_cenc_cons key iv s t encs H) as (ssps & c & r & _ & Ec & Er & ->).
      destruct i as [|i].
      + cbn in Hi. inversion Hi; subst ei. cbn [e_iv firstn map sumN].
        split; [exact Hl|]. split; [exact Hb|].
        rewrite N.add_0_r. symmetry. apply N.mod_small. apply be_bound16; assumption.
      + cbn [nth_error] in Hi.
        assert (Hl' : length (increment_iv iv ssps (lenN s)) = 16%nat).
        { unfold increment_iv. rewrite increment_iv_inplace_length. exact Hl. }
        assert (Hb' : bytes_ok (increment_iv iv ssps (lenN s)) = true).
        { unfold increment_iv. apply increment_iv_inplace_bytes_ok. exact Hb. }
        destruct (IH _ _ Hl' Hb' Er i ei Hi) as (H1 & H2 & H3).
        split; [exact H1|]. split; [exact H2|].
        rewrite H3, iv_increment by exact Hb.
        assert (Hliv : lenN iv = 16) by (unfold lenN; rewrite Hl; reflexivity).
        rewrite Hliv. change (2 ^ (8 * 16)) with M128.
        rewrite N.add_mod_idemp_l by discriminate.
        cbn [firstn map sumN].
        change (blocks_of (mkEnc iv ssps c)) with (nr_enc_blocks ssps (lenN c)).
        apply crypt_sample_cenc_length in Ec.
        assert (Hlc : lenN c = lenN s) by (unfold lenN; rewrite Ec; reflexivity).
        rewrite Hlc. f_equal. lia.
  Qed.

  Lemma sum_firstn_le {A} (f : A -> N) (l : list A) i : sumN (map f (firstn i l)) <= sumN (map f l).
  Proof.
    revert i. induction l as [|a t IH]; intros i; [destruct i; cbn; lia|].
    destruct i as [|i]; cbn [firstn map sumN]; [lia|]. specialize (IH i). lia.
  Qed.

  Lemma sum_firstn_lt {A} (f : A -> N) (l : list A) i j x :
    (i < j)%nat -> nth_error l i = Some x ->
    sumN (map f (firstn i l)) + f x <= sumN (map f (firstn j l)).
  Proof.
    revert i j. induction l as [|a t IH]; intros i j Hij Hx; [destruct i; discriminate|].
    destruct j as [|j]; [lia|]. destruct i as [|i].
    - cbn in Hx. inversion Hx; subst. cbn [firstn map sumN]. lia.
    - cbn [nth_error] in Hx. cbn [firstn map sumN]. specialize (IH i j ltac:(lia) Hx). lia.
  Qed.

  Lemma mod_offsets_differ base a b : a < b -> b < M128 -> (base + a) mod M128 <> (base + b) mod M128.
  Proof.
    intros Hab Hb. unfold M128 in *.
    pose proof (N.div_mod (base + a) 340282366920938463463374607431768211456).
    pose proof (N.div_mod (base + b) 340282366920938463463374607431768211456).
    pose proof (N.mod_lt (base + a) 340282366920938463463374607431768211456).
    pose proof (N.mod_lt (base + b) 340282366920938463463374607431768211456).
    intros Heq. rewrite Heq in *.
    set (q1 := (base + a) / 340282366920938463463374607431768211456) in *.
    set (q2 := (base + b) / 340282366920938463463374607431768211456) in *.
    set (r := (base + b) mod 340282366920938463463374607431768211456) in *.
    assert (q1 = q2 \/ q1 < q2 \/ q2 < q1) by lia.
    destruct H3 as [-> | [Hlt | Hlt]]; nia.
  Qed.

  Lemma no_counter_reuse key samples iv encs :
    length iv = 16%nat -> bytes_ok iv = true ->
    encrypt_samples_cenc E protfunc key iv samples = Ok encs ->
    sumN (map blocks_of encs) < M128 ->
    forall i j ei ej t t',
      (i < j)%nat -> nth_error encs i = Some ei -> nth_error encs j = Some ej ->
      t < blocks_of ei -> t' < blocks_of ej ->
      (be (e_iv ei) + t) mod M128 <> (be (e_iv ej) + t') mod M128.
  Proof.
    intros Hl Hb Henc Htot i j ei ej t t' Hij Hi Hj Ht Ht'.
    destruct (iv_chain key samples iv encs Hl Hb Henc i ei Hi) as (_ & _ & Hei).
    destruct (iv_chain key samples iv encs Hl Hb Henc j ej Hj) as (_ & _ & Hej).
    rewrite Hei, Hej, !N.add_mod_idemp_l by discriminate.
    rewrite <- !N.add_assoc.
    pose proof (sum_firstn_lt blocks_of encs i j ei Hij Hi).
    assert (Hj' : sumN (map blocks_of (firstn j encs)) + blocks_of ej <= sumN (map blocks_of encs)).
    { pose proof (sum_firstn_lt blocks_of encs j (S j) ej ltac:(lia) Hj).
      pose proof (sum_firstn_le blocks_of encs (S j)). lia. }
    apply mod_offsets_differ; lia.
  Qed.
End Chain.
