(* C07CbcsProofs.v — cbcsCrypt / cryptSampleCbcs equal the reference CBC over the crypt:skip pattern with the
   constant IV restarted in every protected range, identity elsewhere. *)
From V.lib Require Import Base.
From V.c07 Require Import C07Model C07Spec C07RangeProofs C07CryptProofs.

Section Cbcs.
  Variable E : list N -> list N -> list N.
  Variable D : list N -> list N -> list N.
  Variable key : list N.
  Hypothesis HE : forall k b, length (E k b) = 16%nat.
  Hypothesis HD : forall k b, length (D k b) = 16%nat.

  Lemma xorl_length16 a b : length a = 16%nat -> length b = 16%nat -> length (xorl a b) = 16%nat.
  Proof. intros Ha Hb. rewrite xorl_length by lia. exact Ha. Qed.

  Lemma cbc_x_length (dec : bool) : forall fuel m prev data,
    length prev = 16%nat -> length data = (16 * m)%nat -> (m < fuel)%nat ->
    length (fst ((if dec then cbc_dec D else cbc_enc E) fuel key prev data)) = length data /\
    length (snd ((if dec then cbc_dec D else cbc_enc E) fuel key prev data)) = 16%nat.
  Proof.
    induction fuel as [|f IH]; intros m prev data Hp Hd Hm; [lia|].
    destruct data as [|x t].
    - destruct dec; cbn; split; try reflexivity; exact Hp.
    - destruct m as [|m]; [cbn in Hd; lia|].
      assert (H16 : length (firstn 16 (x :: t)) = 16%nat) by (rewrite firstn_length; lia).
      assert (Hsk : length (skipn 16 (x :: t)) = (16 * m)%nat) by (rewrite skipn_length; lia).
      destruct dec.
      + cbn [cbc_dec].
        destruct (IH m (firstn 16 (x :: t)) (skipn 16 (x :: t)) H16 Hsk ltac:(lia)) as [I1 I2].
        cbn beta iota in I1, I2.
        destruct (cbc_dec D f key (firstn 16 (x :: t)) (skipn 16 (x :: t))) as [o pv]. cbn [fst snd] in *.
        split; [|exact I2]. rewrite app_length, I1, xorl_length16, Hsk by (try apply HD; assumption). lia.
      + cbn [cbc_enc].
        set (c := E key (xorl (firstn 16 (x :: t)) prev)).
        destruct (IH m c (skipn 16 (x :: t)) (HE _ _) Hsk ltac:(lia)) as [I1 I2].
        cbn beta iota in I1, I2.
        destruct (cbc_enc E f key c (skipn 16 (x :: t))) as [o pv]. cbn [fst snd] in *.
        split; [|exact I2]. rewrite app_length, I1, Hsk. unfold c. rewrite HE. lia.
  Qed.

  Lemma cbc_length dec prev seg m :
    length prev = 16%nat -> length seg = (16 * m)%nat ->
    length (fst (cbc E D dec key prev seg)) = length seg /\ length (snd (cbc E D dec key prev seg)) = 16%nat.
  Proof. intros Hp Hs. unfold cbc. apply (cbc_x_length dec (S (length seg)) m); [exact Hp|exact Hs|lia]. Qed.

  Lemma crypt_blocks_cbc dec prev seg :
    lenN seg mod 16 = 0 -> crypt_blocks E D dec key prev seg = Ok (cbc E D dec key prev seg).
  Proof.
    intros H. unfold crypt_blocks, cbc. apply N.eqb_eq in H. rewrite H. cbn [negb].
    destruct dec; reflexivity.
  Qed.

  Lemma mult16 n : n mod 16 = 0 -> exists m, N.to_nat n = (16 * m)%nat.
  Proof. intros H. exists (N.to_nat (n / 16)). pose proof (N.div_mod n 16). lia. Qed.

  (* the pattern loop over one protected range *)
  Lemma cbcs_loop_ref dec nc ns : nc mod 16 = 0 -> 1 <= ns ->
    forall fuel pre rest prev,
    length prev = 16%nat -> (length rest < fuel)%nat ->
    cbcs_loop E D fuel dec key prev (pre ++ rest) (lenN pre) nc ns
    = Ok (pre ++ ref_pattern E D fuel dec key prev rest nc ns).
  Proof.
    intros Hnc Hns. induction fuel as [|f IH]; intros pre rest prev Hp Hf; [lia|].
    cbn [cbcs_loop ref_pattern]. rewrite lenN_app.
    replace (lenN pre + lenN rest - lenN pre) with (lenN rest) by lia.
    destruct (nc <=? lenN rest) eqn:Ec; [|reflexivity]. apply N.leb_le in Ec.
    set (seg := firstn (N.to_nat nc) rest). set (rest2 := skipn (N.to_nat nc) rest).
    assert (Hsplit : rest = seg ++ rest2) by (symmetry; apply firstn_skipn).
    assert (Hseg : lenN seg = nc) by (apply lenN_firstn; exact Ec).
    assert (Hr2 : lenN rest2 = lenN rest - nc) by apply lenN_skipn.
    rewrite (slice_eq (pre ++ rest) pre seg rest2 (lenN pre) (lenN pre + nc)); [| rewrite Hsplit at 1; reflexivity | reflexivity | lia].
    cbn [rbind]. rewrite crypt_blocks_cbc by (rewrite Hseg; exact Hnc). cbn [rbind].
    destruct (mult16 nc Hnc) as (m & Hm).
    assert (Hsegl : length seg = (16 * m)%nat) by (unfold lenN in Hseg; lia).
    destruct (cbc_length dec prev seg m Hp Hsegl) as [Lo Lp].
    destruct (cbc E D dec key prev seg) as [o prev'] eqn:Ecbc. cbn [fst snd] in Lo, Lp.
    assert (Hsp : splice (pre ++ rest) (lenN pre) o = pre ++ o ++ rest2).
    { rewrite Hsplit at 1. apply splice_mid. exact Lo. }
    rewrite Hsp.
    replace (lenN pre + lenN rest - (lenN pre + nc)) with (lenN rest - nc) by lia.
    destruct (lenN rest - nc <? ns) eqn:Es; [reflexivity|]. apply N.ltb_ge in Es.
    set (mid := firstn (N.to_nat ns) rest2). set (rest3 := skipn (N.to_nat ns) rest2).
    assert (Hmid : lenN mid = ns) by (apply lenN_firstn; lia).
    assert (Hlo : lenN o = nc) by (unfold lenN in *; lia).
    replace (pre ++ o ++ rest2) with ((pre ++ o ++ mid) ++ rest3)
      by (rewrite <- !app_assoc; unfold mid, rest3; rewrite firstn_skipn; reflexivity).
    replace (lenN pre + nc + ns) with (lenN (pre ++ o ++ mid)) by (rewrite !lenN_app; lia).
    rewrite IH; [rewrite <- !app_assoc; reflexivity|exact Lp|].
    unfold rest3, rest2. rewrite !skipn_length. unfold lenN in *. lia.
  Qed.

  Lemma ref_pattern_length dec nc ns : nc mod 16 = 0 ->
    forall fuel prev data, length prev = 16%nat ->
    length (ref_pattern E D fuel dec key prev data nc ns) = length data.
  Proof.
    intros Hnc. induction fuel as [|f IH]; intros iv data Hiv; [reflexivity|].
    cbn [ref_pattern]. destruct (nc <=? lenN data) eqn:Ec; [|reflexivity]. apply N.leb_le in Ec.
    destruct (mult16 nc Hnc) as (m & Hm).
    assert (Hsegl : length (firstn (N.to_nat nc) data) = (16 * m)%nat)
      by (rewrite firstn_length; unfold lenN in *; lia).
    destruct (cbc_length dec iv _ m Hiv Hsegl) as [Lo Lp].
    destruct (cbc E D dec key iv (firstn (N.to_nat nc) data)) as [o prev']. cbn [fst snd] in *.
    destruct (lenN data - nc <? ns) eqn:Es.
    - rewrite app_length, Lo, firstn_length, skipn_length. lia.
    - apply N.ltb_ge in Es. rewrite !app_length, Lo, IH by exact Lp.
      rewrite !firstn_length, !skipn_length. unfold lenN in *. lia.
  Qed.

  (* func cbcsCrypt on one range *)
  Lemma cbcs_crypt_ref dec iv data nc ns :
    key_ok key = true -> length iv = 16%nat -> nc mod 16 = 0 ->
    cbcs_crypt E D dec data key iv nc ns = Ok (ref_cbcs_range E D dec key iv data nc ns).
  Proof.
    intros Hk Hiv Hnc. unfold cbcs_crypt, ref_cbcs_range. rewrite Hk. cbn [negb].
    assert (Hl : (lenN iv =? 16) = true) by (apply N.eqb_eq; unfold lenN; rewrite Hiv; reflexivity).
    rewrite Hl. cbn [negb]. destruct (ns =? 0) eqn:Ens.
    - set (n16 := lenN data / 16 * 16).
      assert (Hle : n16 <= lenN data) by (unfold n16; lia).
      set (seg := firstn (N.to_nat n16) data). set (tl := skipn (N.to_nat n16) data).
      assert (Hsplit : data = [] ++ seg ++ tl) by (symmetry; apply firstn_skipn).
      assert (Hseg : lenN seg = n16) by (apply lenN_firstn; exact Hle).
      rewrite (slice_eq data [] seg tl 0 n16 Hsplit) by (change (lenN (@nil N)) with 0; lia).
      cbn [rbind]. rewrite crypt_blocks_cbc by (rewrite Hseg; unfold n16; apply N.mod_mul; discriminate).
      cbn [rbind].
      destruct (mult16 n16 ltac:(unfold n16; apply N.mod_mul; discriminate)) as (m & Hm).
      assert (Hsegl : length seg = (16 * m)%nat) by (unfold lenN in Hseg; lia).
      destruct (cbc_length dec iv seg m Hiv Hsegl) as [Lo _].
      change 0 with (lenN (@nil N)). rewrite Hsplit at 1. rewrite splice_mid by exact Lo. reflexivity.
    - apply N.eqb_neq in Ens.
      apply (cbcs_loop_ref dec nc ns Hnc ltac:(lia) (S (length data)) [] data iv Hiv). lia.
  Qed.

  Lemma ref_cbcs_range_length dec iv data nc ns :
    length iv = 16%nat -> nc mod 16 = 0 ->
    length (ref_cbcs_range E D dec key iv data nc ns) = length data.
  Proof.
    intros Hiv Hnc. unfold ref_cbcs_range. destruct (ns =? 0).
    - set (n16 := lenN data / 16 * 16).
      assert (Hle : n16 <= lenN data) by (unfold n16; lia).
      destruct (mult16 n16 ltac:(unfold n16; apply N.mod_mul; discriminate)) as (m & Hm).
      assert (Hsegl : length (firstn (N.to_nat n16) data) = (16 * m)%nat)
        by (rewrite firstn_length; unfold lenN in *; lia).
      destruct (cbc_length dec iv _ m Hiv Hsegl) as [Lo _].
      rewrite app_length, Lo, firstn_length, skipn_length. lia.
    - apply ref_pattern_length; assumption.
  Qed.

  (* the sub-sample loop of cryptSampleCbcs *)
  Lemma ref_cbcs_walk_cons dec iv nc ns r t r1 mid post :
    lenN r1 = ss_clear r -> lenN mid = ss_prot r ->
    ref_cbcs_walk E D dec key iv (r :: t) (r1 ++ mid ++ post) nc ns
    = r1 ++ (if 0 <? ss_prot r then ref_cbcs_range E D dec key iv mid nc ns else mid) ++
      ref_cbcs_walk E D dec key iv t post nc ns.
  Proof.
    intros H1 H2. cbn [ref_cbcs_walk]. rewrite <- H1, <- H2, !skipn_lenN_app, !firstn_lenN_app. reflexivity.
  Qed.

  Lemma cbcs_sub_loop_ref dec iv nc ns :
    key_ok key = true -> length iv = 16%nat -> nc mod 16 = 0 ->
    forall ssps pos sample done rest,
    sample = done ++ rest -> pos = lenN done ->
    sumN (map (fun p => ss_clear p + ss_prot p) ssps) <= lenN rest ->
    lenN sample < 4294967296 ->
    cbcs_sub_loop E D dec key iv ssps pos sample nc ns
    = Ok (done ++ ref_cbcs_walk E D dec key iv ssps rest nc ns).
  Proof.
    intros Hk Hiv Hnc. induction ssps as [|ss t IH]; intros pos sample done rest Hs Hp Hsum Hlen.
    - cbn [cbcs_sub_loop ref_cbcs_walk]. rewrite Hs. reflexivity.
    - cbn [map sumN] in Hsum.
      destruct (split3 rest (ss_clear ss) (ss_prot ss)) as (r1 & mid & post & -> & Hr1 & Hmid); [lia|].
      rewrite (ref_cbcs_walk_cons dec iv nc ns ss t r1 mid post Hr1 Hmid). cbn [cbcs_sub_loop].
      rewrite !lenN_app in Hsum. rewrite Hs, !lenN_app in Hlen.
      replace (u32 (pos + ss_clear ss)) with (lenN (done ++ r1)) by (rewrite lenN_app, u32_small; lia).
      rewrite (u32_small (lenN (done ++ r1) + ss_prot ss)) by (rewrite lenN_app; lia).
      assert (Hs' : sample = (done ++ r1) ++ mid ++ post) by (rewrite Hs, <- app_assoc; reflexivity).
      destruct (0 <? ss_prot ss).
      + rewrite (slice_eq sample (done ++ r1) mid post _ _ Hs' eq_refl) by (rewrite Hmid; reflexivity).
        cbn [rbind]. rewrite cbcs_crypt_ref by assumption. cbn [rbind].
        set (o := ref_cbcs_range E D dec key iv mid nc ns).
        assert (Hol : length o = length mid) by (apply ref_cbcs_range_length; assumption).
        assert (Hol' : lenN o = lenN mid) by (unfold lenN; rewrite Hol; reflexivity).
        rewrite Hs', splice_mid by exact Hol.
        rewrite (IH _ _ ((done ++ r1) ++ o) post).
        * rewrite <- !app_assoc. reflexivity.
        * rewrite <- !app_assoc. reflexivity.
        * rewrite (lenN_app _ o). lia.
        * lia.
        * rewrite !lenN_app. lia.
      + cbn [rbind]. rewrite (IH _ sample ((done ++ r1) ++ mid) post).
        * rewrite <- !app_assoc. reflexivity.
        * rewrite Hs', <- !app_assoc. reflexivity.
        * rewrite (lenN_app _ mid). lia.
        * lia.
        * rewrite Hs, !lenN_app. lia.
  Qed.

  Lemma crypt_sample_cbcs_ref dec iv ssps cb sb sample :
    key_ok key = true -> length iv = 16%nat ->
    sumN (map (fun p => ss_clear p + ss_prot p) ssps) <= lenN sample ->
    lenN sample < 4294967296 ->
    crypt_sample_cbcs E D dec key iv ssps cb sb sample = Ok (ref_cbcs E D dec key iv ssps cb sb sample).
  Proof.
    intros Hk Hiv Hsum Hlen. unfold crypt_sample_cbcs, ref_cbcs.
    assert (Hnc : (cb * 16) mod 16 = 0) by (apply N.mod_mul; discriminate).
    destruct ssps as [|ss t].
    - apply cbcs_crypt_ref; assumption.
    - apply (cbcs_sub_loop_ref dec iv (cb * 16) (sb * 16) Hk Hiv Hnc (ss :: t) 0 sample [] sample);
        try reflexivity; assumption.
  Qed.
End Cbcs.
