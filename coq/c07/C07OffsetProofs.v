(* C07OffsetProofs.v — trun.data_offset after encryption.  EncryptFragment appends saiz, saio, senc to the traf and
   leaves trun.DataOffset alone; Fragment.Encode recomputes it (SetTrunDataOffsets: size of the moof + mdat header +
   data of the runs written before, coq/c05 set_offsets / C05OffProofs.set_offsets_spec, read-only import).
   The definitions and lemmas behind the two statements of C07Theorems.v:
   (1) C07_offsets_grow_struct, on C05's fragment structure: add_traf_extra (a bytes of boxes added to a traf) and
       what it does to the moof size and the truns;
   (2) C07_offsets_after_encrypt, on the bytes of the fragment (C07TrafModel): the file moof || mdat, the data offset,
       reading sample i through an offset (read_sample_ok), the length of the moof. *)
From V.lib Require Import Base.
From V.c05 Require Import C05Model C05FragModel C05OffProofs.
From V.c07 Require Import C07RangeProofs C07TrafModel.

(* EncryptFragment on C05's fragment: a bytes of boxes appended to the (first) traf *)
Definition add_traf_extra (fr : frag) (a : N) : frag :=
  match fr_trafs fr with
  | t :: ts => mkFrag (mkTraf (tf_hd t) (tf_dt t) (tf_truns t) (tf_extra t + a) :: ts) (fr_mdat fr) (fr_next fr)
                      (fr_pre fr) (fr_moofx fr) (fr_post fr)
  | [] => fr
  end.

Lemma moof_size_add_extra fr a : fr_trafs fr <> [] -> moof_size (add_traf_extra fr a) = moof_size fr + a.
Proof.
  unfold add_traf_extra, moof_size. destruct (fr_trafs fr) as [|t ts] eqn:Et; [congruence|]. intros _.
  cbn [fr_trafs fr_moofx map sumN]. unfold traf_size. cbn [tf_hd tf_dt tf_truns tf_extra]. lia.
Qed.

Lemma all_truns_add_extra fr a : all_truns (fr_trafs (add_traf_extra fr a)) = all_truns (fr_trafs fr).
Proof.
  unfold add_traf_extra. destruct (fr_trafs fr) as [|t ts] eqn:Et; [rewrite Et; reflexivity|].
  cbn [fr_trafs]. unfold all_truns. cbn [flat_map tf_truns]. reflexivity.
Qed.

Lemma all_truns_with_offsets fr f :
  all_truns (with_offsets fr f) = map (fun r => tr_with_doff r (f r)) (all_truns (fr_trafs fr)).
Proof.
  unfold with_offsets, all_truns. induction (fr_trafs fr) as [|t ts IH]; [reflexivity|].
  cbn [map flat_map tf_truns]. rewrite map_app, IH. reflexivity.
Qed.

Definition doffs (fr : frag) : list Z := map tr_doff (all_truns (fr_trafs fr)).

Definition cc_mdat : list N := [109; 100; 97; 116].
Definition frag_file (f : bfrag) : list N :=
  moof_bytes f ++ box_hdr cc_mdat (mdat_payload f) ++ mdat_payload f.
(* what SetTrunDataOffsets writes into the single trun: moof size + mdat header *)
Definition data_offset (f : bfrag) : N := lenN (moof_bytes f) + 8.

Definition sizes_before (samples : list (list N)) (i : nat) : N := sumN (map (fun s => lenN s) (firstn i samples)).

(* sample i read through a data offset: size_i bytes at off + sizes of the samples before *)
Definition read_sample (file : list N) (off : N) (samples : list (list N)) (i : nat) : list N :=
  firstn (length (nth i samples [])) (skipn (N.to_nat (off + sizes_before samples i)) file).

Lemma concat_split_nth {A} : forall (l : list (list A)) i s,
  nth_error l i = Some s ->
  concat l = concat (firstn i l) ++ s ++ concat (skipn (S i) l).
Proof.
  induction l as [|x t IH]; intros i s H; [destruct i; discriminate|].
  destruct i as [|i].
  - cbn in H. inversion H; subst. reflexivity.
  - cbn [nth_error] in H. cbn [firstn skipn concat]. rewrite (IH i s H), <- !app_assoc. reflexivity.
Qed.

Lemma lenN_concat {A} (l : list (list A)) : lenN (concat l) = sumN (map (fun s => lenN s) l).
Proof. induction l as [|x t IH]; [reflexivity|]. cbn [concat map sumN]. rewrite lenN_app, IH. reflexivity. Qed.

Lemma read_sample_ok f i s :
  nth_error (bf_samples f) i = Some s ->
  read_sample (frag_file f) (data_offset f) (bf_samples f) i = s.
Proof.
  intros H. unfold read_sample, frag_file, data_offset, mdat_payload.
  rewrite (nth_error_nth _ _ [] H).
  rewrite (concat_split_nth (bf_samples f) i s H) at 2.
  set (pre := concat (firstn i (bf_samples f))).
  assert (Hoff : lenN (moof_bytes f) + 8 + sizes_before (bf_samples f) i
                 = lenN ((moof_bytes f ++ box_hdr cc_mdat (concat (bf_samples f))) ++ pre)).
  { rewrite !lenN_app. unfold pre. rewrite lenN_concat. unfold sizes_before.
    assert (H8 : lenN (box_hdr cc_mdat (concat (bf_samples f))) = 8) by reflexivity. rewrite H8. reflexivity. }
  rewrite Hoff.
  replace (moof_bytes f ++ box_hdr cc_mdat (concat (bf_samples f)) ++ pre ++ s ++ concat (skipn (S i) (bf_samples f)))
    with (((moof_bytes f ++ box_hdr cc_mdat (concat (bf_samples f))) ++ pre) ++ s ++ concat (skipn (S i) (bf_samples f)))
    by (rewrite <- !app_assoc; reflexivity).
  rewrite skipn_lenN_app.
  replace (length s) with (N.to_nat (lenN s)) by (unfold lenN; lia).
  apply firstn_lenN_app.
Qed.

Lemma lenN_box_hdr cc p : lenN cc = 4 -> lenN (box_hdr cc p) = 8.
Proof. intros H. unfold box_hdr. rewrite lenN_app, H. reflexivity. Qed.

Lemma moof_len f :
  lenN (moof_bytes f) = 8 + lenN (concat (bf_before f)) + 8 + lenN (concat (bf_traf f)) + lenN (concat (bf_after f)).
Proof.
  unfold moof_bytes, moof_payload, traf_bytes. rewrite !lenN_app, !lenN_box_hdr by reflexivity. lia.
Qed.

Lemma Forall2_nth_l {A B} (R : A -> B -> Prop) l1 l2 :
  Forall2 R l1 l2 -> forall k x, nth_error l1 k = Some x -> exists y, nth_error l2 k = Some y /\ R x y.
Proof.
  induction 1 as [|x y l l' Hxy _ IH]; intros k a Hk; [destruct k; discriminate|].
  destruct k as [|k]; cbn [nth_error] in *; [|exact (IH k a Hk)].
  inversion Hk; subst. exists y. split; [reflexivity|exact Hxy].
Qed.

Lemma sizes_before_same {B} (R : list N -> B -> Prop) (f : B -> list N) l1 l2 :
  (forall x y, R x y -> length (f y) = length x) -> Forall2 R l1 l2 ->
  forall k, sizes_before (map f l2) k = sizes_before l1 k.
Proof.
  intros HR. induction 1 as [|x y l l' Hxy _ IH]; intros k; [destruct k; reflexivity|].
  destruct k as [|k]; [reflexivity|]. unfold sizes_before in *. cbn [map firstn sumN]. rewrite IH.
  unfold lenN. rewrite (HR x y Hxy). reflexivity.
Qed.
