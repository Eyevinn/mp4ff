(* C07FragProofs.v — the IV / counter clauses at fragment level without a side condition on the total number of
   blocks: sample sizes (uint32 in trun) and the sample count (uint32) bound a fragment to fewer than 2^60 cipher
   blocks, so neither the 128-bit wrap of incrementIV / cipher.NewCTR nor (for an 8-byte IV padded to 16 bytes by
   EncryptFragment) a carry out of the low 64 bits into the IV half can happen inside a fragment.  Across
   fragments nothing is carried over: EncryptFragment starts from the IV it is given. *)
From V.lib Require Import Base.
From V.c07 Require Import C07Model C07CryptProofs.

Definition P32 : N := 4294967296.
Definition P28 : N := 268435456.
Definition P60 : N := 1152921504606846976.

(* ipd.ProtFunc describes bytes of the sample it is given (true of Get(AVC|HEVC)ProtectRanges on every sample they
   accept: C07_ranges_cover_any_bytes; trivially of the audio function) *)
Definition prot_in_sample (protfunc : list N -> res (list ssp)) : Prop :=
  forall s r, protfunc s = Ok r -> sumN (map ss_prot r) <= lenN s.

Lemma sum_div16_le l : 16 * sumN (map (fun s => ss_prot s / 16) l) <= sumN (map ss_prot l).
Proof.
  induction l as [|p t IH]; [cbn; lia|]. cbn [map sumN].
  pose proof (N.mul_div_le (ss_prot p) 16). lia.
Qed.

Lemma nr_enc_blocks_bound ssps len :
  sumN (map ss_prot ssps) <= len -> len < P32 -> nr_enc_blocks ssps len <= P28.
Proof.
  unfold P32, P28. intros Hs Hl. unfold nr_enc_blocks. destruct ssps as [|p t].
  - lia.
  - pose proof (sum_div16_le (p :: t)). lia.
Qed.

Section Frag.
  Variable E : list N -> list N -> list N.
  Variable protfunc : list N -> res (list ssp).

  (* the hypotheses on the protection function are asked for the samples of the fragment only *)
  Lemma blocks_bound key : forall samples iv encs,
    Forall (fun s => lenN s < P32 /\ forall r, protfunc s = Ok r -> sumN (map ss_prot r) <= lenN s) samples ->
    encrypt_samples_cenc E protfunc key iv samples = Ok encs ->
    sumN (map blocks_of encs) <= P28 * lenN samples /\ length encs = length samples.
  Proof.
    induction samples as [|s t IH]; intros iv encs Hf H.
    - cbn in H. inversion H; subst. cbn. split; [lia|reflexivity].
    - destruct (encrypt_samples_cenc_cons E protfunc key iv s t encs H) as (ssps & c & r & Ep & Ec & Er & ->).
      destruct (Forall_inv Hf) as [Hs Hp]. pose proof (Forall_inv_tail Hf) as Ht.
      destruct (IH _ _ Ht Er) as [IH1 IH2].
      apply crypt_sample_cenc_length in Ec.
      assert (Hlc : lenN c = lenN s) by (unfold lenN; rewrite Ec; reflexivity).
      cbn [map sumN length]. change (blocks_of (mkEnc iv ssps c)) with (nr_enc_blocks ssps (lenN c)).
      rewrite Hlc. pose proof (nr_enc_blocks_bound ssps (lenN s) (Hp ssps Ep) Hs).
      split; [rewrite lenN_cons; lia|rewrite IH2; reflexivity].
  Qed.

  (* no counter block is used twice inside a fragment — no hypothesis on the number of blocks *)
  Lemma no_counter_reuse_frag key iv samples encs :
    length iv = 16%nat -> bytes_ok iv = true ->
    Forall (fun s => lenN s < P32 /\ forall r, protfunc s = Ok r -> sumN (map ss_prot r) <= lenN s) samples ->
    lenN samples < P32 ->
    encrypt_samples_cenc E protfunc key iv samples = Ok encs ->
    sumN (map blocks_of encs) < P60 /\
    (forall i ei, nth_error encs i = Some ei ->
       be (e_iv ei) = (be iv + sumN (map blocks_of (firstn i encs))) mod 2 ^ 128) /\
    (forall i j ei ej t t',
       (i < j)%nat -> nth_error encs i = Some ei -> nth_error encs j = Some ej ->
       t < blocks_of ei -> t' < blocks_of ej ->
       (be (e_iv ei) + t) mod 2 ^ 128 <> (be (e_iv ej) + t') mod 2 ^ 128).
  Proof.
    intros Hl Hb Hf Hn Henc.
    destruct (blocks_bound key samples iv encs Hf Henc) as [Hsum _].
    assert (H60 : sumN (map blocks_of encs) < P60) by (unfold P60, P28, P32 in *; nia).
    split; [exact H60|]. split.
    - intros i ei Hi. apply (iv_chain E protfunc key samples iv encs Hl Hb Henc i ei Hi).
    - apply (no_counter_reuse E protfunc key samples iv encs Hl Hb Henc).
      unfold P60, M128 in *. lia.
  Qed.
End Frag.
