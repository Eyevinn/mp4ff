(* C07Theorems.v — the property theorems of C07 and nothing else, each proved from the lemmas of the proof files and
   followed by Print Assumptions (audited by ./check on every run).
   Vocabulary (C07Spec.v): frames nalus = concatenation of 4-byte-length-prefixed NAL units; expand r = the
   per-byte clear(false)/protected(true) flags described by the sub-sample entries r; spec_mask = the flags the
   property prescribes; ref_cenc = reference AES-CTR (counter block i = IV + i as a 128-bit big-endian integer)
   xor-ed over the protected bytes in order, identity elsewhere.  E is ANY function from key and block to
   16-byte blocks. *)
From V.lib Require Import Base.
From V.c05 Require Import C05Model C05FragModel C05OffProofs.
From V.c15 Require Import C15Model C15Spec C15HevcModel C15HevcSpec C15Examples C15HevcSliceExamples.
From V.c06 Require Import C06SencModel C06SencAuxProofs.
From V.c07 Require Import C07Model C07Spec C07IvProofs C07RangeProofs C07CryptProofs C07CbcsProofs C07AuxProofs.
From V.c07 Require Import C07CodecModel C07CodecProofs C07FragProofs C07OnlyProofs C07TrafModel C07TrafProofs C07MixedProofs C07OffsetProofs C07SizeProofs.
From V.c07 Require Import C07WrapModel C07WrapProofs.

(* AppendProtectRange, every nrClear / nrProtected (65535, 65536, 131070, ... included) *)
Theorem C07_append_protect_range : forall ssps c p,
  exists r, append_protect_range ssps c p = Ok r /\
            expand r = expand ssps ++ rep false c ++ rep true p /\
            (Forall (fun e => ss_clear e < 65536) ssps -> Forall (fun e => ss_clear e < 65536) r).
Proof.
  intros ssps c p. destruct (append_protect_range_spec (fun _ => True) ssps c p I I) as (r & Hr & He & Hc & _).
  exists r. split; [exact Hr|]. split; [exact He|]. intros H. apply entry_ok_clear, Hc, entry_ok_clear, H.
Qed.
Print Assumptions C07_append_protect_range.

(* the sub-sample entries partition the sample exactly, clear counts fit 16 bits, protected counts are whole
   blocks — for EVERY non-empty list of NAL units of ANY sizes, 0 (a bare length field), 1 and 2 (shorter than an
   HEVC NAL header) included (AVC and HEVC: any isvideo).  protect_ranges_r = the text since /repo 401deba; with the
   text before it (protect_ranges) a trailing empty NAL unit was not covered: C07_partition_pinned_refuted *)
Theorem C07_partition : forall (isvideo : N -> bool) (hdr : list N -> res N) (nalus : list (list N)),
  nalus <> [] ->
  lenN (frames nalus) < 4294967296 ->
  exists r, protect_ranges_r isvideo hdr Cenc (frames nalus) = Ok r /\
            sumN (map (fun p => ss_clear p + ss_prot p) r) = lenN (frames nalus) /\
            Forall (fun p => ss_clear p < 65536 /\ ss_prot p mod 16 = 0) r.
Proof.
  intros isvideo hdr nalus Hne Hlen. destruct (cenc_ranges_mask isvideo hdr nalus Hne Hlen) as (r & Hr & _ & Hs & Hc).
  exists r. split; [exact Hr|]. split; [exact Hs|exact Hc].
Qed.
Print Assumptions C07_partition.

(* cenc shape: byte-for-byte, the entries protect exactly the last prot_cenc(len) bytes of every video NALU and
   nothing else (length fields, NAL headers, non-video NALUs clear); prot_cenc is positive iff len+4 >= 112, a
   multiple of 16, leaves 96..111 bytes clear from the length field on, and protects every NALU longer than
   127 bytes starting at most 127 bytes in *)
Theorem C07_cenc_shape : forall (isvideo : N -> bool) (hdr : list N -> res N) (nalus : list (list N)),
  nalus <> [] ->
  lenN (frames nalus) < 4294967296 ->
  (exists r, protect_ranges_r isvideo hdr Cenc (frames nalus) = Ok r /\
             expand r = spec_mask isvideo (fun n => prot_cenc (lenN n)) nalus) /\
  (forall L, (0 < prot_cenc L <-> 112 <= L + 4) /\
             prot_cenc L mod 16 = 0 /\
             prot_cenc L <= L /\
             (112 <= L + 4 -> 96 <= L + 4 - prot_cenc L /\ L + 4 - prot_cenc L <= 111) /\
             (127 < L -> 0 < prot_cenc L /\ L - prot_cenc L <= 127)).
Proof.
  intros isvideo hdr nalus Hne Hlen. split; [|exact prot_cenc_shape].
  destruct (cenc_ranges_mask isvideo hdr nalus Hne Hlen) as (r & Hr & He & _). exists r. split; [exact Hr|exact He].
Qed.
Print Assumptions C07_cenc_shape.

(* cbcs shape, parametric in the slice-header size function hs (guard hs n <= |n| explicit): the protected bytes
   of a video NALU are exactly those after its slice header *)
Theorem C07_cbcs_shape : forall (isvideo : N -> bool) (hdr : list N -> res N) (hs : list N -> N)
                                (nalus : list (list N)),
  wf_nalus_cbcs nalus = true ->
  lenN (frames nalus) < 4294967296 ->
  (forall n, In n nalus -> first_is_video isvideo n = true -> hdr n = Ok (hs n) /\ hs n <= lenN n) ->
  exists r, protect_ranges_r isvideo hdr Cbcs (frames nalus) = Ok r /\
            expand r = spec_mask isvideo (fun n => lenN n - hs n) nalus /\
            sumN (map (fun p => ss_clear p + ss_prot p) r) = lenN (frames nalus) /\
            Forall (fun p => ss_clear p < 65536) r.
Proof. exact cbcs_ranges_mask. Qed.
Print Assumptions C07_cbcs_shape.

(* incrementIV is big-endian addition of the block count modulo 2^(8|iv|): every IV length, every carry chain *)
Theorem C07_iv_increment : forall iv ssps slen,
  bytes_ok iv = true ->
  be (increment_iv iv ssps slen) = (be iv + nr_enc_blocks ssps slen) mod 2 ^ (8 * lenN iv).
Proof. exact iv_increment. Qed.
Print Assumptions C07_iv_increment.

Theorem C07_iv_increment_inplace : forall iv n,
  bytes_ok iv = true ->
  be (increment_iv_inplace iv n) = (be iv + n) mod 2 ^ (8 * lenN iv) /\
  length (increment_iv_inplace iv n) = length iv.
Proof. intros iv n H. split; [apply iv_increment_inplace; exact H|apply increment_iv_inplace_length]. Qed.
Print Assumptions C07_iv_increment_inplace.

(* CryptSampleCenc = reference CTR over the protected bytes in order, identity elsewhere — for EVERY block
   function E and every sub-sample map that fits the sample *)
Theorem C07_matches_reference :
  forall (E : list N -> list N -> list N) (key iv : list N) (ssps : list ssp) (sample : list N),
  (forall k b, length (E k b) = 16%nat) ->
  length iv = 16%nat -> bytes_ok iv = true -> key_ok key = true ->
  sumN (map (fun p => ss_clear p + ss_prot p) ssps) <= lenN sample ->
  lenN sample < 4294967296 ->
  crypt_sample_cenc E key iv ssps sample = Ok (ref_cenc E key iv ssps sample).
Proof. intros E key iv ssps sample Hb Hl Hv. apply crypt_sample_cenc_ref; assumption. Qed.
Print Assumptions C07_matches_reference.

(* the per-sample loop of EncryptFragment (cenc): IV chain and no counter block used twice in a fragment *)
Theorem C07_no_counter_reuse :
  forall (E : list N -> list N -> list N) (protfunc : list N -> res (list ssp))
         (key iv : list N) (samples : list (list N)) (encs : list enc_sample),
  length iv = 16%nat -> bytes_ok iv = true ->
  encrypt_samples_cenc E protfunc key iv samples = Ok encs ->
  sumN (map blocks_of encs) < 2 ^ 128 ->
  (forall i ei, nth_error encs i = Some ei ->
     be (e_iv ei) = (be iv + sumN (map blocks_of (firstn i encs))) mod 2 ^ 128) /\
  (forall e, aligned e -> prot_total e <= 16 * blocks_of e) /\
  (forall i j ei ej t t',
     (i < j)%nat -> nth_error encs i = Some ei -> nth_error encs j = Some ej ->
     t < blocks_of ei -> t' < blocks_of ej ->
     (be (e_iv ei) + t) mod 2 ^ 128 <> (be (e_iv ej) + t') mod 2 ^ 128).
Proof.
  intros E protfunc key iv samples encs Hl Hb Henc Htot. change (2 ^ 128) with M128 in *.
  split; [|split].
  - intros i ei Hi. apply (iv_chain E protfunc key samples iv encs Hl Hb Henc i ei Hi).
  - intros e He. apply prot_total_blocks. exact He.
  - apply (no_counter_reuse E protfunc key samples iv encs Hl Hb Henc Htot).
Qed.
Print Assumptions C07_no_counter_reuse.

(* cbcs: cryptSampleCbcs (both directions) = reference CBC over the crypt:skip block pattern (1:9 for video,
   every whole block for audio), chained over the crypted blocks only, the constant IV restarted in every protected
   range, identity elsewhere — for all block functions with 16-byte outputs *)
Theorem C07_cbcs_matches_reference :
  forall (E D : list N -> list N -> list N) (key : list N),
  (forall k b, length (E k b) = 16%nat) ->
  (forall k b, length (D k b) = 16%nat) ->
  forall (dec : bool) (iv : list N) (ssps : list ssp) (cb sb : N) (sample : list N),
  key_ok key = true -> length iv = 16%nat ->
  sumN (map (fun p => ss_clear p + ss_prot p) ssps) <= lenN sample ->
  lenN sample < 4294967296 ->
  crypt_sample_cbcs E D dec key iv ssps cb sb sample = Ok (ref_cbcs E D dec key iv ssps cb sb sample).
Proof. exact crypt_sample_cbcs_ref. Qed.
Print Assumptions C07_cbcs_matches_reference.

(* auxiliary information: AddSampleInfo records the byte length of the senc entry MODULO 256; it is the length
   whenever the entry is shorter than 256 bytes (i.e. < 40 sub-samples with a 16-byte IV, < 43 without IV) *)
Theorem C07_aux_info : forall b iv ssps b',
  ssps <> [] -> saiz_add b iv ssps = Ok b' ->
  sz_info b' = sz_info b ++ [lenN (entry_bytes iv ssps) mod 256] /\
  sz_count b' = sz_count b + 1 /\
  (lenN (entry_bytes iv ssps) < 256 -> sz_info b' = sz_info b ++ [lenN (entry_bytes iv ssps)]).
Proof. exact aux_info_size. Qed.
Print Assumptions C07_aux_info.

Theorem C07_aux_entry : forall s i iv ssps,
  0 <? sn_ivsize s = true -> sn_subs s = true ->
  nth_error (sn_ivs s) i = Some iv -> nth_error (sn_ss s) i = Some ssps ->
  senc_entry s i = Ok (entry_bytes iv ssps) /\ lenN (entry_bytes iv ssps) = lenN iv + 2 + 6 * lenN ssps.
Proof. intros s i iv ssps H1 H2 H3 H4. split; [apply senc_entry_bytes; assumption|apply entry_bytes_len]. Qed.
Print Assumptions C07_aux_entry.

(* the unguarded statement is false (known finding C07-F1, reproduced on the real code by the search):
   40 sub-samples + 16-byte IV = 258 bytes, recorded as 2 *)
Theorem C07_aux_info_overflow_refuted :
  exists iv ssps b',
    lenN iv = 16 /\ lenN ssps = 40 /\
    saiz_add saiz_empty iv ssps = Ok b' /\ sz_info b' = [2] /\ lenN (entry_bytes iv ssps) = 258.
Proof. exact aux_info_overflow. Qed.
Print Assumptions C07_aux_info_overflow_refuted.

(* saio: the offset EncryptFragment stores is the position of the first senc entry computed from the box sizes
   AT ENCRYPTION TIME (moof header, boxes before the traf, traf header, traf children before senc, senc header).
   Nothing updates it when Fragment.Encode later rewrites tfhd/trun (OptimizeTrun): known finding C07-F2. *)
Theorem C07_saio_offset : forall before pre z post,
  forallb (fun x => negb (fst x)) pre = true -> forallb (fun x => negb (fst x)) post = true ->
  saio_offset before (pre ++ (true, z) :: post) = 8 + sumN before + 8 + sumN (map snd pre) + 16.
Proof. exact saio_offset_spec. Qed.
Print Assumptions C07_saio_offset.

(* cbcs shape with NOTHING left as an oracle, AVC: spsmap / ppsmap are the maps getAVCPSMaps builds, the slice
   header is parsed by the C15 model of avc.ParseSliceHeader (parse_slice_er, sh_size = bytes it consumed).  For
   every sample = list of NAL units in which every video NAL unit's header parses: the ranges are Ok, they
   partition the sample, every video NAL unit is protected exactly from byte sh_size to its end, everything else
   (length fields, the slice header, non-video NAL units wherever they stand) is clear, and the sample crypt over
   these ranges is the reference CBC in the 1:9 block pattern *)
Theorem C07_cbcs_shape_avc :
  forall (E D : list N -> list N -> list N) spsmap ppsmap key iv (nalus : list (list N)),
  (forall k b, length (E k b) = 16%nat) -> (forall k b, length (D k b) = 16%nat) ->
  key_ok key = true -> length iv = 16%nat ->
  wf_nalus_cbcs nalus = true -> lenN (frames nalus) < 4294967296 ->
  (forall n, In n nalus -> first_is_video avc_is_video n = true ->
     exists sh, parse_slice_er spsmap ppsmap n = Ok sh) ->
  exists r, avc_protect_ranges spsmap ppsmap Cbcs (frames nalus) = Ok r /\
            expand r = spec_mask avc_is_video (fun n => lenN n - hs_of (avc_hdr spsmap ppsmap) n) nalus /\
            sumN (map (fun p => ss_clear p + ss_prot p) r) = lenN (frames nalus) /\
            Forall (fun p => ss_clear p < 65536) r /\
            crypt_sample_cbcs E D false key iv r 1 9 (frames nalus)
            = Ok (ref_cbcs E D false key iv r 1 9 (frames nalus)).
Proof.
  intros E D spsmap ppsmap key iv nalus HE HD Hk Hiv Hwf Hlen Hp.
  apply (cbcs_shape_crypt avc_is_video (avc_hdr spsmap ppsmap) E D key iv 1 9 nalus HE HD Hk Hiv Hwf Hlen).
  exact (parsed_headers avc_is_video _ sh_size (avc_slice_size_le spsmap ppsmap) nalus Hp).
Qed.
Print Assumptions C07_cbcs_shape_avc.

(* the same for HEVC: hparse_slice_er is the C15 model of hevc.ParseSliceHeader (dependent slice segments,
   non-first segments, ... : whatever the parser accepts), s_size the bytes it consumed *)
Theorem C07_cbcs_shape_hevc :
  forall (E D : list N -> list N -> list N) spsmap ppsmap key iv (nalus : list (list N)),
  (forall k b, length (E k b) = 16%nat) -> (forall k b, length (D k b) = 16%nat) ->
  key_ok key = true -> length iv = 16%nat ->
  wf_nalus_cbcs nalus = true -> lenN (frames nalus) < 4294967296 ->
  (forall n, In n nalus -> first_is_video hevc_is_video n = true ->
     exists sh, hparse_slice_er spsmap ppsmap n = Ok sh) ->
  exists r, hevc_protect_ranges spsmap ppsmap Cbcs (frames nalus) = Ok r /\
            expand r = spec_mask hevc_is_video (fun n => lenN n - hs_of (hevc_hdr spsmap ppsmap) n) nalus /\
            sumN (map (fun p => ss_clear p + ss_prot p) r) = lenN (frames nalus) /\
            Forall (fun p => ss_clear p < 65536) r /\
            crypt_sample_cbcs E D false key iv r 1 9 (frames nalus)
            = Ok (ref_cbcs E D false key iv r 1 9 (frames nalus)).
Proof.
  intros E D spsmap ppsmap key iv nalus HE HD Hk Hiv Hwf Hlen Hp.
  apply (cbcs_shape_crypt hevc_is_video (hevc_hdr spsmap ppsmap) E D key iv 1 9 nalus HE HD Hk Hiv Hwf Hlen).
  exact (parsed_headers hevc_is_video _ s_size (hevc_slice_size_le spsmap ppsmap) nalus Hp).
Qed.
Print Assumptions C07_cbcs_shape_hevc.

(* no counter block is reused inside a fragment, WITHOUT a hypothesis on the number of blocks: sample sizes and
   the sample count are uint32 (trun), which bounds a fragment below 2^60 blocks, far from the 2^128 wrap of
   incrementIV / cipher.NewCTR (both wrap modulo 2^128: C07_iv_increment).  prot_in_sample: the ranges describe
   bytes of the sample (C07_partition for concatenations of NAL units, C07_ranges_cover_any_bytes for every sample the
   current text accepts, trivial for audio) *)
Theorem C07_no_counter_reuse_fragment :
  forall (E : list N -> list N -> list N) (protfunc : list N -> res (list ssp)),
  prot_in_sample protfunc ->
  forall key iv samples encs,
  length iv = 16%nat -> bytes_ok iv = true ->
  Forall (fun s => lenN s < 4294967296) samples -> lenN samples < 4294967296 ->
  encrypt_samples_cenc E protfunc key iv samples = Ok encs ->
  sumN (map blocks_of encs) < 2 ^ 60 /\
  (forall i ei, nth_error encs i = Some ei ->
     be (e_iv ei) = (be iv + sumN (map blocks_of (firstn i encs))) mod 2 ^ 128) /\
  (forall i j ei ej t t',
     (i < j)%nat -> nth_error encs i = Some ei -> nth_error encs j = Some ej ->
     t < blocks_of ei -> t' < blocks_of ej ->
     (be (e_iv ei) + t) mod 2 ^ 128 <> (be (e_iv ej) + t') mod 2 ^ 128).
Proof.
  intros E protfunc Hprot key iv samples encs Hl Hb Hf.
  apply no_counter_reuse_frag; [exact Hl|exact Hb|]. eapply Forall_impl; [|exact Hf].
  intros s Hs. split; [exact Hs|exact (Hprot s)].
Qed.
Print Assumptions C07_no_counter_reuse_fragment.

(* an 8-byte IV is padded with 8 zero bytes (EncryptFragment / InitProtect): every per-sample IV of the fragment
   keeps the 8 IV bytes in its upper half, its lower half is the number of blocks used before the sample: the
   lower half neither wraps at 2^64 nor carries into the IV half inside a fragment *)
Theorem C07_iv8_layout :
  forall (E : list N -> list N -> list N) (protfunc : list N -> res (list ssp)),
  prot_in_sample protfunc ->
  forall key iv8 samples encs,
  length iv8 = 8%nat -> bytes_ok iv8 = true ->
  Forall (fun s => lenN s < 4294967296) samples -> lenN samples < 4294967296 ->
  encrypt_samples_cenc E protfunc key (pad_iv iv8) samples = Ok encs ->
  forall i ei, nth_error encs i = Some ei ->
    be (e_iv ei) / 2 ^ 64 = be iv8 /\
    be (e_iv ei) mod 2 ^ 64 = sumN (map blocks_of (firstn i encs)) /\
    sumN (map blocks_of (firstn i encs)) < 2 ^ 60.
Proof.
  intros E protfunc Hprot key iv8 samples encs Hl Hb Hf Hn Henc i ei Hi.
  assert (Hpad : pad_iv iv8 = iv8 ++ repeat 0 8) by (unfold pad_iv, lenN; rewrite Hl; reflexivity).
  assert (Hl16 : length (pad_iv iv8) = 16%nat) by (rewrite Hpad, app_length, repeat_length; lia).
  assert (Hbe : be (pad_iv iv8) = be iv8 * 2 ^ 64).
  { rewrite Hpad. unfold be. rewrite fold_left_app. fold (be iv8). cbn [repeat fold_left]. lia. }
  destruct (C07_no_counter_reuse_fragment E protfunc Hprot key (pad_iv iv8) samples encs Hl16 (pad_iv_bytes_ok iv8 Hb) Hf Hn Henc)
    as (H60 & Hch & _).
  pose proof (Hch i ei Hi) as Hv. rewrite Hbe in Hv.
  pose proof (sum_firstn_le blocks_of encs i) as Hle.
  pose proof (be_bound iv8 Hb) as Hiv8. unfold lenN in Hiv8. rewrite Hl in Hiv8.
  set (k := sumN (map blocks_of (firstn i encs))) in *.
  assert (Hk : k < 2 ^ 60) by lia.
  rewrite N.mod_small in Hv by (change (2 ^ 128) with (2 ^ 64 * 2 ^ 64); change (256 ^ N.of_nat 8) with (2 ^ 64) in Hiv8; nia).
  rewrite Hv. split; [|split; [|exact Hk]].
  - rewrite N.div_add_l, N.div_small by lia. lia.
  - rewrite N.add_comm, N.mod_add by discriminate. apply N.mod_small. lia.
Qed.
Print Assumptions C07_iv8_layout.

(* ACROSS fragments nothing is carried over: two fragments encrypted from the same IV (cmd/mp4ff-encrypt hands
   the command-line IV to every fragment) both start on counter block IV - outside "inside a fragment", stated
   so that the scope of C07_no_counter_reuse_fragment is explicit *)
Theorem C07_cross_fragment_restart :
  forall (E : list N -> list N -> list N) protfunc key iv s1 t1 s2 t2 e1 r1 e2 r2,
  encrypt_samples_cenc E protfunc key iv (s1 :: t1) = Ok (e1 :: r1) ->
  encrypt_samples_cenc E protfunc key iv (s2 :: t2) = Ok (e2 :: r2) ->
  e_iv e1 = iv /\ e_iv e2 = iv.
Proof.
  intros E protfunc key iv s1 t1 s2 t2 e1 r1 e2 r2 H1 H2.
  destruct (encrypt_samples_cenc_cons E protfunc key iv s1 t1 _ H1) as (p1 & c1 & x1 & _ & _ & _ & E1).
  destruct (encrypt_samples_cenc_cons E protfunc key iv s2 t2 _ H2) as (p2 & c2 & x2 & _ & _ & _ & E2).
  inversion E1. inversion E2. split; reflexivity.
Qed.
Print Assumptions C07_cross_fragment_restart.

(* "everything else in the fragment is byte-identical to the clear input", on the BYTES of the fragment
   (C07TrafModel.v): EncryptFragment keeps every box in front of / behind the traf and every child of the traf,
   appends exactly three boxes of types saiz, saio, senc to the traf, keeps the number and the sizes of the samples
   and changes the mdat payload at most at the positions the sub-sample maps mark as protected (all positions of a
   sample without map = audio).  keep_clear m a b: equal lengths and a, b agree wherever m is false *)
Theorem C07_fragment_only_protected :
  forall (E D : list N -> list N -> list N) (protfunc : list N -> res (list ssp)),
  (forall k b, length (E k b) = 16%nat) -> (forall k b, length (D k b) = 16%nat) ->
  forall sch key iv cb sb f g,
  (forall s r, protfunc s = Ok r -> covered r <= lenN s) ->
  key_ok key = true -> bytes_ok iv = true ->
  Forall (fun s => lenN s < 4294967296) (bf_samples f) ->
  encrypt_fragment_bytes E D protfunc sch key iv cb sb f = Ok g ->
  bf_before g = bf_before f /\ bf_after g = bf_after f /\
  (exists saizb saiob sencb,
      bf_traf g = bf_traf f ++ [saizb; saiob; sencb] /\
      is_box [115; 97; 105; 122] saizb /\ is_box [115; 97; 105; 111] saiob /\ is_box [115; 101; 110; 99] sencb) /\
  (exists encs,
      bf_samples g = map e_data encs /\
      Forall2 (fun s e => protfunc s = Ok (e_ssps e) /\ length (e_data e) = length s) (bf_samples f) encs /\
      keep_clear (concat (map (fun e => sample_mask (e_ssps e) (lenN (e_data e))) encs))
                 (mdat_payload f) (mdat_payload g)).
Proof.
  intros E D protfunc HE HD sch key iv cb sb f g Hprot Hk Hb Hf.
  apply encrypt_fragment_only; try assumption. eapply Forall_impl; [|exact Hf].
  intros s Hs. split; [exact Hs|exact (Hprot s)].
Qed.
Print Assumptions C07_fragment_only_protected.

(* the auxiliary information describes the entries actually written, over the bytes of the written moof: skipping
   saio.offset[0] bytes of the moof lands on the first per-sample entry of senc, and cutting pieces of the saiz
   sizes from there yields exactly the entries of the samples (IV || sub-sample table as SencBox.Encode writes
   them), followed by what stands behind the traf.  sub = the samples have sub-sample maps (video) or not (audio);
   entries shorter than 256 bytes (beyond: known finding C07-F1) *)
Theorem C07_aux_traf :
  forall (E D : list N -> list N -> list N) (protfunc : list N -> res (list ssp)) sch key iv cb sb f g sub,
  encrypt_fragment_bytes E D protfunc sch key iv cb sb f = Ok g ->
  prot_uniform protfunc sub (bf_samples f) -> bf_samples f <> [] ->
  let ivsz := match sch with Cenc => 16 | _ => 0 end in
  sub || (0 <? ivsz) = true ->
  (forall encs, encrypt_samples E D protfunc sch key (pad_iv iv) cb sb (bf_samples f) = Ok encs ->
                forallb (fun e => lenN e <? 256) (entries_of ivsz sub encs) = true) ->
  exists encs z saizb off sencb,
    encrypt_samples E D protfunc sch key (pad_iv iv) cb sb (bf_samples f) = Ok encs /\
    saiz_of saiz_empty encs = Ok z /\ saiz_encode z = Ok saizb /\
    bf_traf g = bf_traf f ++ [saizb; saio_encode off; sencb] /\
    saio_offset_field (saio_encode off) = u32 off /\
    aux_walk (saiz_sizes z) (skipn (N.to_nat off) (moof_bytes g))
    = (entries_of ivsz sub encs, concat (bf_after f)) /\
    concat (entries_of ivsz sub encs) ++ concat (bf_after f) = skipn (N.to_nat off) (moof_bytes g) /\
    sz_count z = lenN encs.
Proof. exact aux_traf. Qed.
Print Assumptions C07_aux_traf.

(* EVERY sample Get(AVC|HEVC)ProtectRanges accepts gets at least one sub-sample entry (any bytes, any scheme, any
   slice-header parser): SaizBox.AddSampleInfo / SencBox.AddSample never see a video fragment mixing samples with
   and without entries *)
Theorem C07_subsamples_nonempty : forall isvideo hdr sch sample r,
  lenN sample < 4294967296 -> protect_ranges_r isvideo hdr sch sample = Ok r -> r <> [].
Proof. exact protect_ranges_r_nonempty. Qed.
Print Assumptions C07_subsamples_nonempty.

(* the text before 401deba: a 4-byte sample got no entry; a final empty NAL unit was left out of the partition *)
Theorem C07_partition_pinned_refuted :
  (forall isvideo hdr sch, protect_ranges isvideo hdr sch [0; 0; 0; 0] = Ok [] /\
                           protect_ranges_r isvideo hdr sch [0; 0; 0; 0] = Ok [mkSsp 4 0]) /\
  protect_ranges avc_is_video (fun _ => Err) Cenc (frames [[101; 1]; []]) = Ok [mkSsp 6 0] /\
  protect_ranges_r avc_is_video (fun _ => Err) Cenc (frames [[101; 1]; []]) = Ok [mkSsp 10 0] /\
  lenN (frames [[101; 1]; []]) = 10.
Proof. split; [exact protect_ranges_pinned_empty|]. vm_compute. repeat split; reflexivity. Qed.
Print Assumptions C07_partition_pinned_refuted.

(* C07_aux_traf for EVERY video fragment (no uniformity hypothesis): the saiz sizes and the saio offset describe the
   senc entries actually written, whatever mix of samples with 0 and > 0 protected NAL units, 4-byte samples or
   trailing empty NAL units the fragment holds; every sample has a non-empty entry list *)
Theorem C07_aux_traf_video :
  forall (E D : list N -> list N -> list N) isvideo hdr sch key iv cb sb f g,
  let protfunc := protect_ranges_r isvideo hdr sch in
  encrypt_fragment_bytes E D protfunc sch key iv cb sb f = Ok g ->
  Forall (fun s => lenN s < 4294967296) (bf_samples f) -> bf_samples f <> [] ->
  let ivsz := match sch with Cenc => 16 | _ => 0 end in
  (forall encs, encrypt_samples E D protfunc sch key (pad_iv iv) cb sb (bf_samples f) = Ok encs ->
                forallb (fun e => lenN e <? 256) (entries_of ivsz true encs) = true) ->
  exists encs z saizb off sencb,
    encrypt_samples E D protfunc sch key (pad_iv iv) cb sb (bf_samples f) = Ok encs /\
    Forall (fun e => e_ssps e <> []) encs /\
    saiz_of saiz_empty encs = Ok z /\ saiz_encode z = Ok saizb /\
    bf_traf g = bf_traf f ++ [saizb; saio_encode off; sencb] /\
    saio_offset_field (saio_encode off) = u32 off /\
    aux_walk (saiz_sizes z) (skipn (N.to_nat off) (moof_bytes g))
    = (entries_of ivsz true encs, concat (bf_after f)) /\
    concat (entries_of ivsz true encs) ++ concat (bf_after f) = skipn (N.to_nat off) (moof_bytes g) /\
    sz_count z = lenN encs.
Proof.
  intros E D isvideo hdr sch key iv cb sb f g protfunc H Hf Hne ivsz Hsmall.
  pose proof (video_prot_uniform isvideo hdr sch _ Hf) as Hpu. fold protfunc in Hpu.
  destruct (aux_traf E D protfunc sch key iv cb sb f g true H Hpu Hne eq_refl Hsmall)
    as (encs & z & saizb & off & sencb & H1 & H2 & H3 & H4 & H5 & H6 & H7 & H8).
  exists encs, z, saizb, off, sencb. repeat split; try assumption.
  (* every sample kept its non-empty entry list *)
  destruct (encrypt_fragment_bytes_inv E D protfunc sch key iv cb sb f g H) as (Hl16 & _).
  destruct (encrypt_samples_uniform E D protfunc sch key (pad_iv iv) cb sb _ encs true Hl16 Hpu H1) as [Hu _].
  unfold uniform in Hu. apply Forall_forall. intros e He.
  rewrite forallb_forall in Hu. specialize (Hu e He).
  destruct (e_ssps e); [|discriminate].
  apply andb_prop in Hu. destruct Hu as [_ Hu]. cbn in Hu. discriminate.
Qed.
Print Assumptions C07_aux_traf_video.

(* finding C07-F3 (fixed by 401deba) in the model of the text before it: normal sample + 4-byte sample, cenc: saiz
   announces 16 and 16 bytes, the senc box (SencBox.AddSample as repaired by ecf1460) holds entries of 24 and 18 *)
Theorem C07_aux_mixed_pinned_refuted :
  exists encs z s es,
    encrypt_samples_cenc mixed_E (protect_ranges avc_is_video (fun _ => Err) Cenc) (repeat 7 16) (repeat 1 16)
      [frames [101 :: repeat 7 139]; [0; 0; 0; 0]] = Ok encs /\
    map e_ssps encs = [[mkSsp 96 48]; []] /\
    saiz_of saiz_empty encs = Ok z /\ saiz_sizes z = [16; 16] /\
    senc_of_r senc_empty encs = Ok s /\ senc_entries s 0 2 = Ok es /\ map (fun e => lenN e) es = [24; 18].
Proof. vm_compute. do 4 eexists. repeat split; reflexivity. Qed.
Print Assumptions C07_aux_mixed_pinned_refuted.

(* the slice-header size avc/hevc.ParseSliceHeader report (uint32(r.NrBytesRead())) never exceeds the NAL unit, for
   EVERY byte string and every parameter-set map: the guard `hs n <= |n|` that C07_cbcs_shape leaves as a hypothesis,
   proved over the C15 parser models on the C13 EBSP reader model (invariant rpos <= |data| carried through every
   reader operation, combinator and loop of the parser text) *)
Theorem C07_slice_header_size_bounded :
  (forall spsmap ppsmap nalu sh, parse_slice_er spsmap ppsmap nalu = Ok sh -> sh_size sh <= lenN nalu) /\
  (forall spsmap ppsmap nalu sh, hparse_slice_er spsmap ppsmap nalu = Ok sh -> s_size sh <= lenN nalu).
Proof. split; [exact avc_slice_size_le|exact hevc_slice_size_le]. Qed.
Print Assumptions C07_slice_header_size_bounded.

(* the exact outcome when a slice header does NOT parse (truncated slice, unknown PPS id, video NAL unit type without
   slice header syntax, ...; cbcs): the first such video NAL unit makes Get(AVC|HEVC)ProtectRanges return the error,
   whatever stands behind it - the sample is refused (EncryptFragment: "get protect ranges"), never mis-described.
   With C07_cbcs_shape_avc/_hevc (every header parses) this covers every sample of non-empty NAL units *)
Theorem C07_cbcs_unparsable_refused :
  (forall spsmap ppsmap pre n post,
     (forall m, In m pre -> nonempty m = true /\
                (first_is_video avc_is_video m = true -> exists sh, parse_slice_er spsmap ppsmap m = Ok sh)) ->
     first_is_video avc_is_video n = true -> parse_slice_er spsmap ppsmap n = Err ->
     lenN (frames (pre ++ n :: post)) < 4294967296 ->
     avc_protect_ranges spsmap ppsmap Cbcs (frames (pre ++ n :: post)) = Err) /\
  (forall spsmap ppsmap pre n post,
     (forall m, In m pre -> nonempty m = true /\
                (first_is_video hevc_is_video m = true -> exists sh, hparse_slice_er spsmap ppsmap m = Ok sh)) ->
     first_is_video hevc_is_video n = true -> hparse_slice_er spsmap ppsmap n = Err ->
     lenN (frames (pre ++ n :: post)) < 4294967296 ->
     hevc_protect_ranges spsmap ppsmap Cbcs (frames (pre ++ n :: post)) = Err).
Proof.
  split; intros spsmap ppsmap.
  - exact (cbcs_unparsable_refused avc_is_video _ sh_size (avc_slice_size_le spsmap ppsmap)).
  - exact (cbcs_unparsable_refused hevc_is_video _ s_size (hevc_slice_size_le spsmap ppsmap)).
Qed.
Print Assumptions C07_cbcs_unparsable_refused.

(* an empty NAL unit IN FRONT of another NAL unit (< 2^24 bytes), AVC cbcs: refused (the code takes the top byte 0 of
   the next length field for a NAL header of video type 0 and hands the empty NAL unit to avc.ParseSliceHeader).  For
   cenc such samples are inside C07_partition / C07_cenc_shape; as the LAST NAL unit an empty one is inside the cbcs
   theorems too *)
Theorem C07_cbcs_empty_inside_refused_avc : forall spsmap ppsmap pre n2 post,
  (forall m, In m pre -> nonempty m = true /\
             (first_is_video avc_is_video m = true -> exists sh, parse_slice_er spsmap ppsmap m = Ok sh)) ->
  lenN n2 < 16777216 ->
  lenN (frames (pre ++ [] :: n2 :: post)) < 4294967296 ->
  avc_protect_ranges spsmap ppsmap Cbcs (frames (pre ++ [] :: n2 :: post)) = Err.
Proof.
  intros spsmap ppsmap pre n2 post Hpre Hn2 Hlen.
  eapply (cbcs_refused avc_is_video (avc_hdr spsmap ppsmap) pre [] (n2 :: post) (u8 (lenN n2 / 16777216))).
  - intros m Hm. exact (proj1 (Hpre m Hm)).
  - apply (parsed_headers avc_is_video _ sh_size (avc_slice_size_le spsmap ppsmap)). intros m Hm. exact (proj2 (Hpre m Hm)).
  - reflexivity.
  - rewrite N.div_small by exact Hn2. reflexivity.
  - reflexivity.
  - exact Hlen.
Qed.
Print Assumptions C07_cbcs_empty_inside_refused_avc.

(* trun.data_offset after encryption, on the bytes of the fragment: the moof grows by exactly |saiz|+|saio|+|senc|,
   so does the offset Fragment.Encode writes (data_offset = moof size + mdat header, see C07_offsets_grow_struct), and
   reading sample i of the ENCRYPTED file (moof || mdat) through the grown offset returns the encrypted sample i -
   same size, same position inside the mdat as in the clear file, equal to the clear sample outside its protected
   ranges (keep_clear over the payload); reading the clear file through the clear offset returns the clear sample *)
Theorem C07_offsets_after_encrypt :
  forall (E D : list N -> list N -> list N) (protfunc : list N -> res (list ssp)),
  (forall k b, length (E k b) = 16%nat) -> (forall k b, length (D k b) = 16%nat) ->
  forall sch key iv cb sb f g,
  (forall s r, protfunc s = Ok r -> covered r <= lenN s) ->
  key_ok key = true -> bytes_ok iv = true ->
  Forall (fun s => lenN s < 4294967296) (bf_samples f) ->
  encrypt_fragment_bytes E D protfunc sch key iv cb sb f = Ok g ->
  exists saizb saiob sencb encs,
    bf_traf g = bf_traf f ++ [saizb; saiob; sencb] /\
    lenN (moof_bytes g) = lenN (moof_bytes f) + (lenN saizb + lenN saiob + lenN sencb) /\
    data_offset g = data_offset f + (lenN saizb + lenN saiob + lenN sencb) /\
    bf_samples g = map e_data encs /\
    keep_clear (concat (map (fun e => sample_mask (e_ssps e) (lenN (e_data e))) encs))
               (mdat_payload f) (mdat_payload g) /\
    forall i s, nth_error (bf_samples f) i = Some s ->
      read_sample (frag_file f) (data_offset f) (bf_samples f) i = s /\
      exists e, nth_error encs i = Some e /\ protfunc s = Ok (e_ssps e) /\
                read_sample (frag_file g) (data_offset g) (bf_samples g) i = e_data e /\
                sizes_before (bf_samples g) i = sizes_before (bf_samples f) i /\
                length (e_data e) = length s.
Proof.
  intros E D protfunc HE HD sch key iv cb sb f g Hprot Hk Hb Hf H.
  destruct (C07_fragment_only_protected E D protfunc HE HD sch key iv cb sb f g Hprot Hk Hb Hf H)
    as (Hbef & Haft & (saizb & saiob & sencb & Htraf & _) & (encs & Hs & HF2 & Hkeep)).
  exists saizb, saiob, sencb, encs. split; [exact Htraf|].
  assert (Hlen : lenN (moof_bytes g) = lenN (moof_bytes f) + (lenN saizb + lenN saiob + lenN sencb)).
  { rewrite !moof_len, Hbef, Haft, Htraf, concat_app, lenN_app. cbn [concat]. rewrite !lenN_app, lenN_nil. lia. }
  split; [exact Hlen|]. split; [unfold data_offset; rewrite Hlen; lia|]. split; [exact Hs|]. split; [exact Hkeep|].
  intros i s Hi. split; [apply read_sample_ok; exact Hi|].
  destruct (Forall2_nth_l _ _ _ HF2 i s Hi) as (e & He & Hp & Hl).
  exists e. split; [exact He|]. split; [exact Hp|]. split; [|split; [|exact Hl]].
  - apply read_sample_ok. rewrite Hs, nth_error_map, He. reflexivity.
  - rewrite Hs. exact (sizes_before_same _ e_data _ _ (fun a b Hab => proj2 Hab) HF2 i).
Qed.
Print Assumptions C07_offsets_after_encrypt.

(* composition with C05 (coq/c05, read-only): on C05's fragment structure (any number of trafs / truns, any write
   order), appending a bytes of boxes to a traf (= EncryptFragment: add_traf_extra) makes SetTrunDataOffsets
   (set_offsets, C05OffProofs.set_offsets_spec) write data offsets that are larger by exactly a for EVERY trun; the
   offsets are moof size + mdat header + data written before the run.  Guard: int32 (C05-F5 beyond) *)
Theorem C07_offsets_grow_struct : forall fr a,
  fr_trafs fr <> [] ->
  let L := all_truns (fr_trafs fr) in
  let m := md_size_touch (fr_mdat fr) in
  NoDup (map tr_won L) ->
  moof_size fr + a + md_header_size m + tsum (map pr L) < 2147483648 ->
  doffs (set_offsets (add_traf_extra fr a)) = map (fun z => (z + Z.of_N a)%Z) (doffs (set_offsets fr)) /\
  doffs (set_offsets fr) = map (fun r => Z.of_N (moof_size fr + md_header_size m + wsum (map pr L) (tr_won r))) L.
Proof.
  intros fr a Hne L m Hnd Hlt.
  pose proof (set_offsets_spec fr) as H1. cbv zeta in H1. fold L m in H1.
  specialize (H1 Hnd). rewrite H1 by lia.
  pose proof (set_offsets_spec (add_traf_extra fr a)) as H2. cbv zeta in H2.
  rewrite all_truns_add_extra in H2. fold L in H2.
  assert (Hm : fr_mdat (add_traf_extra fr a) = fr_mdat fr).
  { unfold add_traf_extra. destruct (fr_trafs fr); reflexivity. }
  rewrite Hm in H2. fold m in H2. rewrite (moof_size_add_extra fr a Hne) in H2.
  specialize (H2 Hnd). rewrite H2 by lia.
  unfold doffs, fr_with. cbn [fr_trafs]. rewrite !all_truns_with_offsets, all_truns_add_extra. fold L.
  rewrite !map_map. split.
  - apply map_ext. intros r. cbn [tr_with_doff tr_doff]. lia.
  - apply map_ext. intros r. reflexivity.
Qed.
Print Assumptions C07_offsets_grow_struct.

(* Get(AVC|HEVC)ProtectRanges since /repo 2ef93b3 (protect_ranges_w: position + NAL unit length added in 64 bits) and
   the text before it (protect_ranges_r, uint32 sum): on EVERY byte string the new text returns what the old one
   returned or refuses the sample, and on every concatenation of NAL units (any sizes, empty ones anywhere) below 2^32
   bytes they are EQUAL - so every theorem above stated for protect_ranges_r on `frames nalus` (C07_partition,
   C07_cenc_shape, C07_cbcs_shape(_avc/_hevc), C07_cbcs_unparsable_refused, ...) is a theorem of the current text *)
Theorem C07_ranges_current_text : forall (isvideo : N -> bool) (hdr : list N -> res N) (sch : scheme),
  (forall sample, protect_ranges_w isvideo hdr sch sample = protect_ranges_r isvideo hdr sch sample \/
                  protect_ranges_w isvideo hdr sch sample = Err) /\
  (forall nalus, lenN (frames nalus) < 4294967296 ->
                 protect_ranges_w isvideo hdr sch (frames nalus) = protect_ranges_r isvideo hdr sch (frames nalus)).
Proof. intros isvideo hdr sch. split; [apply protect_ranges_w_rel|apply protect_ranges_w_frames]. Qed.
Print Assumptions C07_ranges_current_text.

(* "each sample's sub-sample entries partition the sample exactly" for EVERY BYTE STRING the code accepts - no
   hypothesis that the sample is a concatenation of NAL units (trailing bytes, length fields pointing anywhere, any
   scheme, both codecs with the C15 slice-header parsers): the entries add up to the size of the sample, every clear
   count fits 16 bits, there is at least one entry.  This is the `prot_in_sample` / `covered r <= |s|` hypothesis of the
   fragment theorems (C07_no_counter_reuse_fragment, C07_iv8_layout, C07_fragment_only_protected,
   C07_offsets_after_encrypt) for the functions EncryptFragment really calls.  False of the text before 2ef93b3:
   C07_wrap_pinned_refuted *)
Theorem C07_ranges_cover_any_bytes :
  (forall (isvideo : N -> bool) (hdr : list N -> res N) (sch : scheme) (sample : list N) (r : list ssp),
     (forall n h, hdr n = Ok h -> h <= lenN n) ->
     lenN sample < 4294967296 ->
     protect_ranges_w isvideo hdr sch sample = Ok r ->
     sumN (map (fun p => ss_clear p + ss_prot p) r) = lenN sample /\
     Forall (fun p => ss_clear p < 65536) r /\ r <> []) /\
  (forall spsmap ppsmap sch sample r,
     lenN sample < 4294967296 ->
     avc_protect_ranges_w spsmap ppsmap sch sample = Ok r ->
     sumN (map (fun p => ss_clear p + ss_prot p) r) = lenN sample /\
     Forall (fun p => ss_clear p < 65536) r /\ r <> []) /\
  (forall spsmap ppsmap sch sample r,
     lenN sample < 4294967296 ->
     hevc_protect_ranges_w spsmap ppsmap sch sample = Ok r ->
     sumN (map (fun p => ss_clear p + ss_prot p) r) = lenN sample /\
     Forall (fun p => ss_clear p < 65536) r /\ r <> []).
Proof.
  split; [|split].
  - intros isvideo hdr sch sample r Hh. exact (protect_ranges_w_cover isvideo hdr sch Hh sample r).
  - intros spsmap ppsmap sch.
    exact (protect_ranges_w_cover avc_is_video _ sch (hdr_of_bound _ sh_size (avc_slice_size_le spsmap ppsmap))).
  - intros spsmap ppsmap sch.
    exact (protect_ranges_w_cover hevc_is_video _ sch (hdr_of_bound _ s_size (hevc_slice_size_le spsmap ppsmap))).
Qed.
Print Assumptions C07_ranges_cover_any_bytes.

(* the loop of Get(AVC|HEVC)ProtectRanges ends within |sample| iterations on EVERY byte string (every iteration moves
   the position forward by at least 4): the fuel of the model is never exhausted *)
Theorem C07_ranges_terminate : forall (isvideo : N -> bool) (hdr : list N -> res N) (sch : scheme) (sample : list N),
  (forall n h, hdr n = Ok h -> h <= lenN n) -> (forall n, hdr n <> OutOfFuel) ->
  lenN sample < 4294967296 ->
  protect_ranges_w isvideo hdr sch sample <> OutOfFuel.
Proof. intros isvideo hdr sch sample Hh Hf. exact (protect_ranges_w_terminates isvideo hdr sch Hh Hf sample). Qed.
Print Assumptions C07_ranges_terminate.

(* finding C07-F6 in the model of the text before 2ef93b3, 9-byte samples: length field 2^32-4 on an AVC access unit
   delimiter - after every iteration the loop is back in its initial state (the Go loop never ends; reproduced); the
   same field on an IDR slice - slice bounds panic; the current text refuses both *)
Theorem C07_wrap_pinned_refuted :
  (forall fuel, pr_loop_g avc_is_video (fun _ => Err) Cenc true fuel wrap_hang_sample 0 0 0 [] = OutOfFuel) /\
  protect_ranges_r avc_is_video (fun _ => Err) Cenc wrap_panic_sample = Panic /\
  protect_ranges_w avc_is_video (fun _ => Err) Cenc wrap_hang_sample = Err /\
  protect_ranges_w avc_is_video (fun _ => Err) Cenc wrap_panic_sample = Err.
Proof. split; [exact wrap_hang_old|]. vm_compute. repeat split; reflexivity. Qed.
Print Assumptions C07_wrap_pinned_refuted.

(* C07_partition + C07_cenc_shape and C07_cbcs_shape restated for the current text *)
Theorem C07_partition_shape_current :
  (forall (isvideo : N -> bool) (hdr : list N -> res N) (nalus : list (list N)),
     nalus <> [] -> lenN (frames nalus) < 4294967296 ->
     exists r, protect_ranges_w isvideo hdr Cenc (frames nalus) = Ok r /\
               expand r = spec_mask isvideo (fun n => prot_cenc (lenN n)) nalus /\
               sumN (map (fun p => ss_clear p + ss_prot p) r) = lenN (frames nalus) /\
               Forall (fun p => ss_clear p < 65536 /\ ss_prot p mod 16 = 0) r) /\
  (forall (isvideo : N -> bool) (hdr : list N -> res N) (hs : list N -> N) (nalus : list (list N)),
     wf_nalus_cbcs nalus = true -> lenN (frames nalus) < 4294967296 ->
     (forall n, In n nalus -> first_is_video isvideo n = true -> hdr n = Ok (hs n) /\ hs n <= lenN n) ->
     exists r, protect_ranges_w isvideo hdr Cbcs (frames nalus) = Ok r /\
               expand r = spec_mask isvideo (fun n => lenN n - hs n) nalus /\
               sumN (map (fun p => ss_clear p + ss_prot p) r) = lenN (frames nalus) /\
               Forall (fun p => ss_clear p < 65536) r).
Proof.
  split.
  - intros isvideo hdr nalus Hne Hlen. rewrite protect_ranges_w_frames by exact Hlen.
    exact (cenc_ranges_mask isvideo hdr nalus Hne Hlen).
  - intros isvideo hdr hs nalus Hwf Hlen. rewrite protect_ranges_w_frames by exact Hlen.
    exact (cbcs_ranges_mask isvideo hdr hs nalus Hwf Hlen).
Qed.
Print Assumptions C07_partition_shape_current.

(* C07_fragment_only_protected and C07_no_counter_reuse_fragment for the protection function EncryptFragment really
   calls on video (Get(AVC|HEVC)ProtectRanges, current text; any isvideo, any slice-header function reporting a size
   inside the NAL unit: C07_slice_header_size_bounded), with NO hypothesis left on the protection function, and for ANY
   sample bytes below 2^32 (not only concatenations of NAL units): whenever EncryptFragment succeeds, every other box is
   kept, saiz / saio / senc are appended, every sample keeps its size, its entries partition it exactly, there is at
   least one entry, and the mdat changes at most at protected positions; the per-sample IVs never reuse a counter block *)
Theorem C07_fragment_video_closed :
  forall (E D : list N -> list N -> list N) (isvideo : N -> bool) (hdr : list N -> res N) (psch : scheme),
  (forall k b, length (E k b) = 16%nat) -> (forall k b, length (D k b) = 16%nat) ->
  (forall n h, hdr n = Ok h -> h <= lenN n) ->
  forall sch key iv cb sb f g,
  key_ok key = true -> bytes_ok iv = true ->
  Forall (fun s => lenN s < 4294967296) (bf_samples f) ->
  encrypt_fragment_bytes E D (protect_ranges_w isvideo hdr psch) sch key iv cb sb f = Ok g ->
  bf_before g = bf_before f /\ bf_after g = bf_after f /\
  (exists saizb saiob sencb,
      bf_traf g = bf_traf f ++ [saizb; saiob; sencb] /\
      is_box [115; 97; 105; 122] saizb /\ is_box [115; 97; 105; 111] saiob /\ is_box [115; 101; 110; 99] sencb) /\
  (exists encs,
      bf_samples g = map e_data encs /\
      Forall2 (fun s e => protect_ranges_w isvideo hdr psch s = Ok (e_ssps e) /\ covered (e_ssps e) = lenN s /\
                          e_ssps e <> [] /\ length (e_data e) = length s) (bf_samples f) encs /\
      keep_clear (concat (map (fun e => sample_mask (e_ssps e) (lenN (e_data e))) encs))
                 (mdat_payload f) (mdat_payload g)).
Proof.
  intros E D isvideo hdr psch HE HD Hh sch key iv cb sb f g Hk Hiv Hsz H.
  set (pf := protect_ranges_w isvideo hdr psch) in *.
  assert (Hok : Forall (sample_ok pf) (bf_samples f)).
  { eapply Forall_impl; [|exact Hsz]. exact (protect_ranges_w_sample_ok isvideo hdr psch Hh). }
  destruct (encrypt_fragment_only E D pf HE HD sch key iv cb sb f g Hk Hiv Hok H) as (A & B & C & (encs & D1 & D2 & D3)).
  split; [exact A|]. split; [exact B|]. split; [exact C|].
  exists encs. split; [exact D1|]. split; [|exact D3].
  eapply (Forall2_with_Forall (fun s => lenN s < 4294967296)); [|exact Hsz|exact D2].
  intros s e Hs [H1 H2]. cbv beta.
  destruct (protect_ranges_w_cover isvideo hdr psch Hh s (e_ssps e) Hs H1) as (C1 & _ & C3).
  repeat split; assumption.
Qed.
Print Assumptions C07_fragment_video_closed.

Theorem C07_no_counter_reuse_closed :
  forall (E : list N -> list N -> list N) (isvideo : N -> bool) (hdr : list N -> res N) (psch : scheme),
  (forall n h, hdr n = Ok h -> h <= lenN n) ->
  forall key iv samples encs,
  length iv = 16%nat -> bytes_ok iv = true ->
  Forall (fun s => lenN s < 4294967296) samples -> lenN samples < 4294967296 ->
  encrypt_samples_cenc E (protect_ranges_w isvideo hdr psch) key iv samples = Ok encs ->
  sumN (map blocks_of encs) < 2 ^ 60 /\
  (forall i ei, nth_error encs i = Some ei ->
     be (e_iv ei) = (be iv + sumN (map blocks_of (firstn i encs))) mod 2 ^ 128) /\
  (forall i j ei ej t t',
     (i < j)%nat -> nth_error encs i = Some ei -> nth_error encs j = Some ej ->
     t < blocks_of ei -> t' < blocks_of ej ->
     (be (e_iv ei) + t) mod 2 ^ 128 <> (be (e_iv ej) + t') mod 2 ^ 128).
Proof.
  intros E isvideo hdr psch Hh key iv samples encs Hl Hb Hsz.
  apply no_counter_reuse_frag; [exact Hl|exact Hb|]. eapply Forall_impl; [|exact Hsz].
  intros s Hs. split; [exact Hs|]. intros r Hr.
  exact (N.le_trans _ _ _ (prot_le_covered r) (proj2 (protect_ranges_w_sample_ok isvideo hdr psch Hh s Hs) r Hr)).
Qed.
Print Assumptions C07_no_counter_reuse_closed.

(* the hypotheses of the theorems above are satisfiable *)
Definition ex_nalus : list (list N) :=
  [ [9; 240];                                  (* AUD, 2 bytes *)
    101 :: repeat 171 139;                     (* IDR slice, 140 bytes: 4+140-96 = 48 -> 48 protected *)
    [6; 5; 1; 128];                            (* SEI *)
    65 :: repeat 3 106 ].                      (* non-IDR slice, 107 bytes: 111 < 112, clear *)

Example ex_wf : ex_nalus <> [] /\ wf_nalus_cbcs ex_nalus = true /\ lenN (frames ex_nalus) < 4294967296.
Proof. split; [discriminate|]. vm_compute. split; reflexivity. Qed.

Example ex_ranges :
  protect_ranges_r avc_is_video (fun _ => Err) Cenc (frames ex_nalus) = Ok [mkSsp 102 48; mkSsp 119 0].
Proof. vm_compute. reflexivity. Qed.

(* NAL units of 0, 1 and 2 bytes in one HEVC sample (cenc): the empty ones are clear length fields, the sample is
   covered to its last byte *)
Example ex_tiny_nalus :
  protect_ranges_r hevc_is_video (fun _ => Err) Cenc (frames [[]; [2]; [64; 1]; 2 :: repeat 9 200; []])
  = Ok [mkSsp 124 96; mkSsp 4 0] /\
  lenN (frames [[]; [2]; [64; 1]; 2 :: repeat 9 200; []]) = 224.
Proof. vm_compute. split; reflexivity. Qed.

(* a block function satisfying the only hypothesis on E, and a run of the fragment loop with an ff..ff IV *)
Definition ex_E (k b : list N) : list N := firstn 16 (xorl (b ++ repeat 0 16) (k ++ repeat 1 16)).

Example ex_E_blocks : forall k b, length (ex_E k b) = 16%nat.
Proof.
  intros k b. unfold ex_E, xorl. rewrite firstn_length, map_length, combine_length, !app_length, !repeat_length. lia.
Qed.

Definition ex_run : res (list enc_sample) :=
  encrypt_samples_cenc ex_E (protect_ranges_r avc_is_video (fun _ => Err) Cenc) (repeat 7 16) (repeat 255 16)
    [frames ex_nalus; frames ex_nalus].

Example ex_fragment :
  match ex_run with
  | Ok encs => map e_iv encs = [repeat 255 16; repeat 0 15 ++ [2]] /\
               N.ltb (sumN (map blocks_of encs)) (2 ^ 128) = true
  | _ => False
  end.
Proof. vm_compute. split; reflexivity. Qed.

(* the hypotheses of the codec theorems: an HEVC access unit AUD / slice segment / suffix SEI, the slice being
   the non-first B segment of C15's example (address 77 of a 960x540 picture with 64x64 CTBs, header 43 bytes) *)
Definition ex_hevc_nalus : list (list N) :=
  [ [70; 1; 80];
    hnalu_slice ex_hsps ex_hpps_b ex_hslice_b ++ repeat 171 200;
    [80; 1; 5; 5] ].

Example ex_hevc_hyp :
  wf_nalus_cbcs ex_hevc_nalus = true /\ lenN (frames ex_hevc_nalus) < 4294967296 /\
  forall n, In n ex_hevc_nalus -> first_is_video hevc_is_video n = true ->
    exists sh, hparse_slice_er ex_spsmap ex_ppsmap n = Ok sh.
Proof.
  split; [vm_compute; reflexivity|]. split; [vm_compute; reflexivity|].
  intros n [<- | [<- | [<- | []]]] Hv; try (vm_compute in Hv; discriminate).
  destruct (hparse_slice_er ex_spsmap ex_ppsmap (hnalu_slice ex_hsps ex_hpps_b ex_hslice_b ++ repeat 171 200)) as [sh| | |] eqn:Ep;
    vm_compute in Ep; try discriminate.
  exists sh. reflexivity.
Qed.

Example ex_hevc_ranges :
  hevc_protect_ranges ex_spsmap ex_ppsmap Cbcs (frames ex_hevc_nalus) = Ok [mkSsp 54 206; mkSsp 8 0].
Proof. vm_compute. reflexivity. Qed.

(* AVC: AUD, the slice of C15's example (header 30 bytes), filler data after the last slice *)
Definition ex_avc_spsmap (id : N) : option sps := if id =? 7 then Some (expected_sps false ex_sl_sps) else None.
Definition ex_avc_ppsmap (id : N) : option pps := if id =? 2 then Some (expected_pps ex_sl_pps) else None.
Definition ex_avc_nalus : list (list N) :=
  [ [9; 240]; nalu_slice ex_sl_sps ex_sl_pps ex_slice ++ repeat 171 200; [12; 255; 255; 128] ].

Example ex_avc_ranges :
  avc_protect_ranges ex_avc_spsmap ex_avc_ppsmap Cbcs (frames ex_avc_nalus) = Ok [mkSsp 40 201; mkSsp 8 0] /\
  avc_hdr ex_avc_spsmap ex_avc_ppsmap (nalu_slice ex_sl_sps ex_sl_pps ex_slice ++ repeat 171 200) = Ok 30.
Proof. vm_compute. split; reflexivity. Qed.

(* EncryptFragment over bytes: two boxes in front of the traf, three traf children, one box behind, two AVC samples *)
Definition ex_bfrag : bfrag :=
  mkBF [[0; 0; 0; 16; 109; 102; 104; 100; 0; 0; 0; 0; 0; 0; 0; 7]]
       [[0; 0; 0; 9; 116; 102; 104; 100; 1]; [0; 0; 0; 8; 116; 114; 117; 110]]
       [[0; 0; 0; 8; 102; 114; 101; 101]]
       [frames ex_nalus; frames ex_nalus].

Example ex_fragment_bytes :
  match encrypt_fragment_bytes ex_E ex_E (protect_ranges_r avc_is_video (fun _ => Err) Cenc) Cenc (repeat 7 16)
          (repeat 255 8) 0 0 ex_bfrag with
  | Ok g => length (bf_traf g) = 5%nat /\
            aux_walk [30; 30] (skipn 104 (moof_bytes g)) =
              ([repeat 255 8 ++ repeat 0 8 ++ [0; 2; 0; 102; 0; 0; 0; 48; 0; 119; 0; 0; 0; 0];
                repeat 255 8 ++ repeat 0 7 ++ [3] ++ [0; 2; 0; 102; 0; 0; 0; 48; 0; 119; 0; 0; 0; 0]],
               [0; 0; 0; 8; 102; 114; 101; 101])
  | _ => False
  end.
Proof. vm_compute. split; reflexivity. Qed.

(* the offsets of the example fragment: clear moof 57 bytes -> offset 65; encrypted moof 57 + 19 + 20 + 76 *)
Example ex_offsets :
  match encrypt_fragment_bytes ex_E ex_E (protect_ranges_r avc_is_video (fun _ => Err) Cenc) Cenc (repeat 7 16)
          (repeat 255 8) 0 0 ex_bfrag with
  | Ok g => data_offset ex_bfrag = 65 /\ data_offset g = 65 + (19 + 20 + 76) /\
            read_sample (frag_file g) (data_offset g) (bf_samples g) 1 = nth 1 (bf_samples g) [] /\
            firstn 102 (nth 1 (bf_samples g) []) = firstn 102 (frames ex_nalus)
  | _ => False
  end.
Proof. vm_compute. repeat split; reflexivity. Qed.

(* the slice of C15's example cut inside its 30-byte header: AVC's parser has no error check at its end and reports
   the bytes it could read (the whole NAL unit stays clear); cut to its NAL header byte it is refused.  HEVC's parser
   checks the reader's error before returning: a cut header is refused *)
Example ex_truncated_slices :
  let n := nalu_slice ex_sl_sps ex_sl_pps ex_slice in
  avc_hdr ex_avc_spsmap ex_avc_ppsmap (firstn 12 n) = Ok 12 /\
  avc_protect_ranges ex_avc_spsmap ex_avc_ppsmap Cbcs (frames [firstn 12 n]) = Ok [mkSsp 16 0] /\
  avc_protect_ranges ex_avc_spsmap ex_avc_ppsmap Cbcs (frames [[9; 240]; [101]; n]) = Err /\
  hevc_protect_ranges ex_spsmap ex_ppsmap Cbcs
    (frames [[70; 1; 80]; firstn 20 (hnalu_slice ex_hsps ex_hpps_b ex_hslice_b)]) = Err.
Proof. vm_compute. repeat split; reflexivity. Qed.

(* the current text on byte strings that are NOT concatenations of NAL units (3 bytes behind the last NAL unit): the
   entries cover the 272 bytes; a slice-header function satisfying both hypotheses of C07_ranges_terminate, cbcs *)
Definition ex_hdr3 (n : list N) : res N := Ok (N.min 3 (lenN n)).

Example ex_cover_any_bytes :
  protect_ranges_w avc_is_video (fun _ => Err) Cenc (frames ex_nalus ++ [1; 2; 3]) = Ok [mkSsp 102 48; mkSsp 122 0] /\
  protect_ranges_w avc_is_video ex_hdr3 Cbcs (frames ex_nalus ++ [1; 2; 3]) = Ok [mkSsp 13 137; mkSsp 15 104; mkSsp 3 0] /\
  lenN (frames ex_nalus ++ [1; 2; 3]) = 272 /\
  (forall n h, ex_hdr3 n = Ok h -> h <= lenN n) /\ (forall n, ex_hdr3 n <> OutOfFuel).
Proof.
  split; [vm_compute; reflexivity|]. split; [vm_compute; reflexivity|]. split; [vm_compute; reflexivity|].
  split; [|discriminate]. unfold ex_hdr3. intros n h H. inversion H. lia.
Qed.

(* the hypotheses of C07_fragment_video_closed: the example fragment through the current text, one sample carrying 3
   bytes behind its last NAL unit *)
Example ex_fragment_closed :
  match encrypt_fragment_bytes ex_E ex_E (protect_ranges_w avc_is_video ex_hdr3 Cenc) Cenc (repeat 7 16)
          (repeat 255 8) 0 0
          (mkBF (bf_before ex_bfrag) (bf_traf ex_bfrag) (bf_after ex_bfrag) [frames ex_nalus ++ [1; 2; 3]; frames ex_nalus]) with
  | Ok g => length (bf_traf g) = 5%nat /\ map (fun s => lenN s) (bf_samples g) = [272; 269]
  | _ => False
  end.
Proof. vm_compute. split; reflexivity. Qed.
