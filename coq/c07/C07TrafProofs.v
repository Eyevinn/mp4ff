(* C07TrafProofs.v — EncryptFragment over the bytes of a fragment:
   (d) it changes nothing but the protected byte ranges of the mdat payload and appends exactly saiz, saio, senc
       to the traf;
   (b) in the bytes of the written moof, saio.offset[0] addresses the first per-sample entry of senc, and walking
       the saiz sizes from there enumerates exactly the entries the senc box carries (composition with the senc
       byte model of C06: senc_encode, saiz_encode, C06 aux_consistent / saio_points_at_entries). *)
From V.lib Require Import Base.
From V.c07 Require Import C07Model C07IvProofs C07RangeProofs C07OnlyProofs C07TrafModel.
From V.c06 Require Import C06SencModel C06SencProofs C06SencAuxProofs.

Lemma aux_walk_concat : forall es tail, aux_walk (map (fun e => lenN e) es) (concat es ++ tail) = (es, tail).
Proof.
  induction es as [|e t IH]; intros tail; [reflexivity|].
  cbn [map aux_walk concat]. rewrite <- app_assoc.
  rewrite skipn_lenN_app, firstn_lenN_app, IH. reflexivity.
Qed.

Lemma saio_encode_len off : lenN (saio_encode off) = 20.
Proof. reflexivity. Qed.

Lemma saio_field off : saio_offset_field (saio_encode off) = u32 off.
Proof.
  unfold saio_offset_field, saio_encode. cbn [be_bytes4 app skipn firstn].
  change [u8 (u32 off / 16777216); u8 (u32 off / 65536); u8 (u32 off / 256); u8 (u32 off)] with (be_bytes4 (u32 off)).
  apply be_bytes4_be. unfold u32. apply N.mod_lt. discriminate.
Qed.

Lemma box_hdr_len cc p : length cc = 4%nat -> length (box_hdr cc p) = 8%nat.
Proof. intros H. unfold box_hdr. rewrite app_length, H. reflexivity. Qed.

(* the senc box of a non-empty fragment with per-sample data: 16 bytes (size, 'senc', version/flags, sample_count)
   followed by the per-sample entries *)
Lemma senc_encode_shape ivsz sub encs box :
  encs <> [] -> sub || (0 <? ivsz) = true -> uniform ivsz sub encs = true ->
  senc_encode (senc_after ivsz sub encs) = Ok box ->
  exists hdr16, length hdr16 = 16%nat /\ box = hdr16 ++ concat (entries_of ivsz sub encs).
Proof.
  intros Hne Hdata Hu H. unfold senc_encode in H.
  destruct (senc_calc_size (senc_after ivsz sub encs)) as [size| | |]; try discriminate. cbn [rbind] in H.
  assert (Hiv : sn_ivsize (senc_after ivsz sub encs) = ivsz) by (destruct encs; [congruence|reflexivity]).
  assert (Hsub : sn_subs (senc_after ivsz sub encs) = sub).
  { unfold senc_after. cbn [sn_subs]. destruct encs; [congruence|]. apply andb_true_r. }
  rewrite Hiv, Hsub in H.
  assert (Htriv : (ivsz =? 0) && negb sub = false).
  { destruct sub; [apply andb_false_r|]. cbn [orb] in Hdata. apply N.ltb_lt in Hdata.
    assert (E0 : ivsz =? 0 = false) by (apply N.eqb_neq; lia). rewrite E0. reflexivity. }
  rewrite Htriv in H.
  assert (Hcount : N.to_nat (sn_count (senc_after ivsz sub encs)) = length encs).
  { unfold senc_after. cbn [sn_count]. unfold lenN. lia. }
  rewrite Hcount in H.
  rewrite (entries_spec (senc_after ivsz sub encs) (length encs) 0 (map e_iv encs) (map e_ssps encs)) in H.
  - rewrite Hiv, Hsub, zip_entries_map in H. cbn [rbind] in H.
    match type of H with (if ?c then _ else _) = _ => destruct c end; [discriminate|].
    inversion H. clear H.
    exists (be_bytes4 size ++ cc_senc_bytes ++ [0; 0; 0; if sub then 2 else 0] ++
            be_bytes4 (sn_count (senc_after ivsz sub encs))).
    split; [reflexivity|]. unfold entries_of. rewrite <- !app_assoc. reflexivity.
  - rewrite Hiv. intros Hpos. unfold senc_after. cbn [sn_ivs skipn].
    apply N.ltb_lt in Hpos. assert (E0 : ivsz =? 0 = false) by (apply N.eqb_neq; lia). rewrite E0.
    split; [reflexivity|apply map_length].
  - rewrite Hsub. intros ->. unfold senc_after. cbn [sn_ss skipn]. split; [reflexivity|apply map_length].
Qed.

Section Steps.
  Variable E : list N -> list N -> list N.
  Variable D : list N -> list N -> list N.
  Variable protfunc : list N -> res (list ssp).

  (* the steps of a successful EncryptFragment *)
  Lemma encrypt_fragment_bytes_inv sch key iv cb sb f g :
    encrypt_fragment_bytes E D protfunc sch key iv cb sb f = Ok g ->
    length (pad_iv iv) = 16%nat /\
    exists encs z s saizb sencb,
      encrypt_samples E D protfunc sch key (pad_iv iv) cb sb (bf_samples f) = Ok encs /\
      saiz_of saiz_empty encs = Ok z /\ senc_of senc_empty encs = Ok s /\
      saiz_encode z = Ok saizb /\ senc_encode s = Ok sencb /\
      g = mkBF (bf_before f)
               (bf_traf f ++ [saizb;
                              saio_encode (saio_offset (map (fun b => lenN b) (bf_before f))
                                (map (fun b => (false, lenN b)) (bf_traf f ++ [saizb; saio_encode 0]) ++ [(true, lenN sencb)]));
                              sencb])
               (bf_after f) (map e_data encs).
  Proof.
    intros H. unfold encrypt_fragment_bytes in H.
    destruct (negb (lenN (pad_iv iv) =? 16)) eqn:E16; [discriminate|].
    apply negb_false_iff, N.eqb_eq in E16. split; [unfold lenN in E16; lia|].
    destruct (encrypt_samples E D protfunc sch key (pad_iv iv) cb sb (bf_samples f)) as [encs| | |] eqn:E1;
      try discriminate. cbn [rbind] in H.
    destruct (saiz_of saiz_empty encs) as [z| | |] eqn:E2; try discriminate. cbn [rbind] in H.
    destruct (senc_of senc_empty encs) as [s| | |] eqn:E3; try discriminate. cbn [rbind] in H.
    destruct (saiz_encode z) as [saizb| | |] eqn:E4; try discriminate. cbn [rbind] in H.
    destruct (senc_encode s) as [sencb| | |] eqn:E5; try discriminate. cbn [rbind] in H.
    inversion H. exists encs, z, s, saizb, sencb. repeat split; assumption.
  Qed.

  (* all samples with, or all without, sub-sample entries: so are the encrypted samples, with the IV size of the scheme *)
  Lemma encrypt_samples_uniform sch key iv cb sb samples encs sub :
    length iv = 16%nat -> prot_uniform protfunc sub samples ->
    encrypt_samples E D protfunc sch key iv cb sb samples = Ok encs ->
    uniform (match sch with Cenc => 16 | _ => 0 end) sub encs = true /\ length encs = length samples.
  Proof.
    intros Hl Hu H. destruct sch; cbn [encrypt_samples] in H; try discriminate.
    - exact (cenc_loop_uniform E protfunc sub samples key iv encs Hl Hu H).
    - exact (cbcs_loop_uniform E D protfunc sub samples key iv cb sb encs Hu H).
  Qed.
End Steps.

Section Traf.
  Variable E : list N -> list N -> list N.
  Variable D : list N -> list N -> list N.
  Variable protfunc : list N -> res (list ssp).
  Hypothesis HE : forall k b, length (E k b) = 16%nat.
  Hypothesis HD : forall k b, length (D k b) = 16%nat.

  Definition is_box (cc : list N) (b : list N) : Prop := firstn 4 (skipn 4 b) = cc.

  (* (d) *)
  Lemma encrypt_fragment_only sch key iv cb sb f g :
    key_ok key = true -> bytes_ok iv = true ->
    Forall (sample_ok protfunc) (bf_samples f) ->
    encrypt_fragment_bytes E D protfunc sch key iv cb sb f = Ok g ->
    bf_before g = bf_before f /\ bf_after g = bf_after f /\
    (exists saizb saiob sencb,
        bf_traf g = bf_traf f ++ [saizb; saiob; sencb] /\
        is_box [115; 97; 105; 122] saizb /\ is_box [115; 97; 105; 111] saiob /\ is_box [115; 101; 110; 99] sencb) /\
    (exists encs,
        bf_samples g = map e_data encs /\
        Forall2 (fun s e => protfunc s = Ok (e_ssps e) /\ length (e_data e) = length s) (bf_samples f) encs /\
        keep_clear (concat (map (fun e => sample_mask (e_ssps e) (lenN (e_data e))) encs))
                   (mdat_payload f) (mdat_payload g)).
  Proof.
    intros Hk Hb Hf H.
    destruct (encrypt_fragment_bytes_inv E D protfunc sch key iv cb sb f g H)
      as (Hl16 & encs & z & s & saizb & sencb & Eenc & _ & _ & Ez & Es & ->).
    pose proof (pad_iv_bytes_ok iv Hb) as Hb16. cbn [bf_before bf_after bf_traf bf_samples].
    split; [reflexivity|]. split; [reflexivity|]. split.
    - eexists. eexists. eexists. split; [reflexivity|].
      split; [|split].
      + unfold saiz_encode in Ez. destruct (if sz_default z =? 0 then _ else _) as [info| | |]; try discriminate.
        cbn [rbind] in Ez. inversion Ez. reflexivity.
      + reflexivity.
      + unfold senc_encode in Es. destruct (senc_calc_size s) as [size| | |]; try discriminate. cbn [rbind] in Es.
        destruct (if (sn_ivsize s =? 0) && negb (sn_subs s) then _ else _) as [en| | |]; try discriminate.
        cbn [rbind] in Es. match type of Es with (if ?c then _ else _) = _ => destruct c end; [discriminate|].
        inversion Es. reflexivity.
    - exists encs. split; [reflexivity|]. unfold mdat_payload. cbn [bf_samples].
      destruct sch; cbn [encrypt_samples] in Eenc; try discriminate.
      + destruct (keep_clear_concat protfunc _ _ (cenc_frag_keeps E HE protfunc key _ _ encs Hl16 Hb16 Hk Hf Eenc)) as [K F2].
        split; assumption.
      + destruct (keep_clear_concat protfunc _ _ (cbcs_frag_keeps E D HE HD protfunc key _ cb sb _ encs Hl16 Hk Hf Eenc)) as [K F2].
        split; assumption.
  Qed.

End Traf.

Section Aux.
  Variable E : list N -> list N -> list N.
  Variable D : list N -> list N -> list N.
  Variable protfunc : list N -> res (list ssp).

  (* (b) *)
  Lemma aux_traf sch key iv cb sb f g sub :
    encrypt_fragment_bytes E D protfunc sch key iv cb sb f = Ok g ->
    prot_uniform protfunc sub (bf_samples f) -> bf_samples f <> [] ->
    let ivsz := match sch with Cenc => 16 | _ => 0 end in
    sub || (0 <? ivsz) = true ->
    (forall encs, encrypt_samples E D protfunc sch key (pad_iv iv) cb sb (bf_samples f) = Ok encs ->
                  forallb (fun e => lenN e <? 256) (entries_of ivsz sub encs) = true) ->
    exists encs z saizb off sencb,
      encrypt_samples E D protfunc sch key (pad_iv iv) cb sb (bf_samples f) = Ok encs /\
      saiz_of saiz_empty encs = Ok z /\ saiz_encode z = Ok saizb /\
      bf_traf g = bf_traf f ++ [saizb; saio_encode off; sencb] /\
      saio_offset_field (saio_encode off) = u32 off /\
      aux_walk (saiz_sizes z) (skipn (N.to_nat off) (moof_bytes g))
      = (entries_of ivsz sub encs, concat (bf_after f)) /\
      concat (entries_of ivsz sub encs) ++ concat (bf_after f) = skipn (N.to_nat off) (moof_bytes g) /\
      sz_count z = lenN encs.
  Proof.
    intros H Hu Hne ivsz Hdata Hsmall.
    destruct (encrypt_fragment_bytes_inv E D protfunc sch key iv cb sb f g H)
      as (Hl16 & encs & z & s & saizb & sencb & Eenc & Ez0 & Es0 & Ez & Es & ->).
    specialize (Hsmall encs Eenc).
    destruct (encrypt_samples_uniform E D protfunc sch key (pad_iv iv) cb sb (bf_samples f) encs sub Hl16 Hu Eenc)
      as [HU HL].
    assert (Hne' : encs <> []).
    { intros ->. destruct (bf_samples f); [congruence|discriminate]. }
    assert (Hsz : ivsz = 0 \/ ivsz = 8 \/ ivsz = 16) by (unfold ivsz; destruct sch; auto).
    assert (Hlt : ivsz < 256) by (destruct Hsz as [-> | [-> | ->]]; lia).
    rewrite (senc_of_spec ivsz sub encs Hlt HU) in Es0. inversion Es0; subst s. clear Es0.
    destruct (senc_encode_shape ivsz sub encs sencb Hne' Hdata HU Es) as (hdr16 & Hh & Hbox).
    pose proof (aux_consistent ivsz sub encs z Hsz HU Hsmall Ez0) as Hax. rewrite Hdata in Hax.
    destruct Hax as [Hsizes Hcnt].
    set (off := saio_offset (map (fun b => lenN b) (bf_before f))
                  (map (fun b => (false, lenN b)) (bf_traf f ++ [saizb; saio_encode 0]) ++ [(true, lenN sencb)])).
    set (g := mkBF (bf_before f) (bf_traf f ++ [saizb; saio_encode off; sencb]) (bf_after f) (map e_data encs)).
    exists encs, z, saizb, off, sencb.
    split; [exact Eenc|]. split; [exact Ez0|]. split; [exact Ez|]. split; [reflexivity|].
    split; [apply saio_field|].
    (* the moof bytes in the shape of C06's saio lemma *)
    pose proof (saio_points_at_entries (box_hdr cc_moof (moof_payload g))
                  (box_hdr cc_traf (concat (bf_traf g)))
                  (bf_before f) (bf_traf f ++ [saizb; saio_encode off]) [] hdr16
                  (concat (entries_of ivsz sub encs)) (concat (bf_after f))
                  (box_hdr_len cc_moof _ eq_refl) (box_hdr_len cc_traf _ eq_refl) Hh eq_refl) as Hp.
    cbv zeta in Hp. destruct Hp as [Hskip _]. rewrite <- Hbox in Hskip.
    assert (Hoff : saio_offset (map (fun b => lenN b) (bf_before f))
                     (map (fun b => (false, lenN b)) (bf_traf f ++ [saizb; saio_encode off]) ++ [(true, lenN sencb)]) = off).
    { unfold off. rewrite !map_app. cbn [map]. rewrite !saio_encode_len. reflexivity. }
    rewrite Hoff in Hskip.
    assert (Hmoof : moof_bytes g
                    = box_hdr cc_moof (moof_payload g) ++ concat (bf_before f) ++
                      box_hdr cc_traf (concat (bf_traf g)) ++
                      concat (bf_traf f ++ [saizb; saio_encode off]) ++ sencb ++ concat (bf_after f)).
    { unfold moof_bytes. f_equal. unfold moof_payload, traf_bytes, g. cbn [bf_before bf_traf bf_after].
      f_equal. rewrite <- !app_assoc. f_equal.
      replace (bf_traf f ++ [saizb; saio_encode off; sencb]) with ((bf_traf f ++ [saizb; saio_encode off]) ++ [sencb])
        by (rewrite <- app_assoc; reflexivity).
      rewrite (concat_app (bf_traf f ++ [saizb; saio_encode off]) [sencb]). cbn [concat]. rewrite app_nil_r, <- !app_assoc.
      reflexivity. }
    rewrite Hmoof, Hskip.
    split; [|split; [reflexivity|exact Hcnt]].
    rewrite Hsizes. apply aux_walk_concat.
  Qed.
End Aux.
