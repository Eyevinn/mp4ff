(* C07Aes.v — AES-128 block encryption written in Gallina from FIPS-197 (S-box table of Figure 7,
   SubBytes / ShiftRows / MixColumns / AddRoundKey, KeyExpansion), validated below against the
   FIPS-197 appendix vectors.  Its only role is to be the INDEPENDENT implementation that the bytes
   produced by Go's crypto/aes are compared with (through the extracted model); nothing is proved
   about it and no theorem depends on it. *)
From V.lib Require Import Base.

Definition sbox_tbl : list (list N) :=
  [
   [99; 124; 119; 123; 242; 107; 111; 197; 48; 1; 103; 43; 254; 215; 171; 118];
   [202; 130; 201; 125; 250; 89; 71; 240; 173; 212; 162; 175; 156; 164; 114; 192];
   [183; 253; 147; 38; 54; 63; 247; 204; 52; 165; 229; 241; 113; 216; 49; 21];
   [4; 199; 35; 195; 24; 150; 5; 154; 7; 18; 128; 226; 235; 39; 178; 117];
   [9; 131; 44; 26; 27; 110; 90; 160; 82; 59; 214; 179; 41; 227; 47; 132];
   [83; 209; 0; 237; 32; 252; 177; 91; 106; 203; 190; 57; 74; 76; 88; 207];
   [208; 239; 170; 251; 67; 77; 51; 133; 69; 249; 2; 127; 80; 60; 159; 168];
   [81; 163; 64; 143; 146; 157; 56; 245; 188; 182; 218; 33; 16; 255; 243; 210];
   [205; 12; 19; 236; 95; 151; 68; 23; 196; 167; 126; 61; 100; 93; 25; 115];
   [96; 129; 79; 220; 34; 42; 144; 136; 70; 238; 184; 20; 222; 94; 11; 219];
   [224; 50; 58; 10; 73; 6; 36; 92; 194; 211; 172; 98; 145; 149; 228; 121];
   [231; 200; 55; 109; 141; 213; 78; 169; 108; 86; 244; 234; 101; 122; 174; 8];
   [186; 120; 37; 46; 28; 166; 180; 198; 232; 221; 116; 31; 75; 189; 139; 138];
   [112; 62; 181; 102; 72; 3; 246; 14; 97; 53; 87; 185; 134; 193; 29; 158];
   [225; 248; 152; 17; 105; 217; 142; 148; 155; 30; 135; 233; 206; 85; 40; 223];
   [140; 161; 137; 13; 191; 230; 66; 104; 65; 153; 45; 15; 176; 84; 187; 22]
  ].

Definition nthN (l : list N) (i : N) : N := nth (N.to_nat i) l 0.

Definition sub_byte (b : N) : N := nthN (nth (N.to_nat (N.shiftr b 4)) sbox_tbl []) (N.land b 15).

(* multiplication by x in GF(2^8) modulo x^8 + x^4 + x^3 + x + 1 (FIPS-197 4.2.1) *)
Definition xtime (b : N) : N :=
  let s := b * 2 in if s <? 256 then s else N.lxor (s - 256) 27.

Definition x3 (b : N) : N := N.lxor (xtime b) b.

Definition xor_bytes (a b : list N) : list N :=
  map (fun p => N.lxor (fst p) (snd p)) (combine a b).

(* the state is the 16-byte list in input order: byte r + 4c is s[r,c] *)
Definition sub_bytes (st : list N) : list N := map sub_byte st.

(* s'[r,c] = s[r,(c + r) mod 4] *)
Definition shift_rows (st : list N) : list N :=
  map (nthN st) [0; 5; 10; 15; 4; 9; 14; 3; 8; 13; 2; 7; 12; 1; 6; 11].

Definition mix_col (c : list N) : list N :=
  match c with
  | [a0; a1; a2; a3] =>
      [ N.lxor (N.lxor (xtime a0) (x3 a1)) (N.lxor a2 a3);
        N.lxor (N.lxor a0 (xtime a1)) (N.lxor (x3 a2) a3);
        N.lxor (N.lxor a0 a1) (N.lxor (xtime a2) (x3 a3));
        N.lxor (N.lxor (x3 a0) a1) (N.lxor a2 (xtime a3)) ]
  | _ => c
  end.

Definition mix_columns (st : list N) : list N :=
  mix_col (firstn 4 st) ++ mix_col (firstn 4 (skipn 4 st)) ++
  mix_col (firstn 4 (skipn 8 st)) ++ mix_col (firstn 4 (skipn 12 st)).

(* KeyExpansion, one round key (4 words) at a time: w[i] = w[i-4] xor temp *)
Definition next_round_key (rk : list N) (rcon : N) : list N :=
  let w0 := firstn 4 rk in
  let w1 := firstn 4 (skipn 4 rk) in
  let w2 := firstn 4 (skipn 8 rk) in
  let w3 := firstn 4 (skipn 12 rk) in
  let rot := skipn 1 w3 ++ firstn 1 w3 in                       (* RotWord *)
  let t := xor_bytes (map sub_byte rot) [rcon; 0; 0; 0] in      (* SubWord, Rcon *)
  let n0 := xor_bytes w0 t in
  let n1 := xor_bytes w1 n0 in
  let n2 := xor_bytes w2 n1 in
  let n3 := xor_bytes w3 n2 in
  n0 ++ n1 ++ n2 ++ n3.

Definition rcons : list N := [1; 2; 4; 8; 16; 32; 64; 128; 27; 54].

Fixpoint expand (rk : list N) (rc : list N) : list (list N) :=
  match rc with
  | [] => []
  | r :: t => let nk := next_round_key rk r in nk :: expand nk t
  end.

(* round keys 1..10 *)
Definition key_expansion (key : list N) : list (list N) := expand key rcons.

Fixpoint rounds (st : list N) (rks : list (list N)) : list N :=
  match rks with
  | [] => st
  | [rk] => xor_bytes (shift_rows (sub_bytes st)) rk                           (* final round *)
  | rk :: t => rounds (xor_bytes (mix_columns (shift_rows (sub_bytes st))) rk) t
  end.

(* Cipher(in, w) of FIPS-197 Figure 5 for Nk = 4, Nr = 10 *)
Definition aes128_encrypt (key block : list N) : list N :=
  rounds (xor_bytes block key) (key_expansion key).

(* Appendix A.1: last round key of the expansion of 2b7e1516 28aed2a6 abf71588 09cf4f3c *)
Example fips197_A1_w40_43 :
  last (key_expansion [43; 126; 21; 22; 40; 174; 210; 166; 171; 247; 21; 136; 9; 207; 79; 60]) [] = [208; 20; 249; 168; 201; 238; 37; 137; 225; 63; 12; 200; 182; 99; 12; 166].
Proof. vm_compute. reflexivity. Qed.

(* Appendix B *)
Example fips197_B :
  aes128_encrypt [43; 126; 21; 22; 40; 174; 210; 166; 171; 247; 21; 136; 9; 207; 79; 60] [50; 67; 246; 168; 136; 90; 48; 141; 49; 49; 152; 162; 224; 55; 7; 52] = [57; 37; 132; 29; 2; 220; 9; 251; 220; 17; 133; 151; 25; 106; 11; 50].
Proof. vm_compute. reflexivity. Qed.

(* Appendix C.1 *)
Example fips197_C1 :
  aes128_encrypt [0; 1; 2; 3; 4; 5; 6; 7; 8; 9; 10; 11; 12; 13; 14; 15] [0; 17; 34; 51; 68; 85; 102; 119; 136; 153; 170; 187; 204; 221; 238; 255] = [105; 196; 224; 216; 106; 123; 4; 48; 216; 205; 183; 128; 112; 180; 197; 90].
Proof. vm_compute. reflexivity. Qed.

(* SP 800-38A F.5.1 CTR-AES128 block 1 keystream input: E(K, f0f1..feff) xor plaintext 6bc1..172a = 874d..b6ce *)
Example sp800_38a_ctr1 :
  xor_bytes (aes128_encrypt [43; 126; 21; 22; 40; 174; 210; 166; 171; 247; 21; 136; 9; 207; 79; 60] [240; 241; 242; 243; 244; 245; 246; 247; 248; 249; 250; 251; 252; 253; 254; 255]) [107; 193; 190; 226; 46; 64; 159; 150; 233; 61; 126; 17; 115; 147; 23; 42] = [135; 77; 97; 145; 182; 32; 227; 38; 27; 239; 104; 100; 153; 13; 182; 206].
Proof. vm_compute. reflexivity. Qed.

(* inverse cipher (FIPS-197 5.3) *)
Definition inv_sbox_tbl : list (list N) :=
  [
   [82; 9; 106; 213; 48; 54; 165; 56; 191; 64; 163; 158; 129; 243; 215; 251];
   [124; 227; 57; 130; 155; 47; 255; 135; 52; 142; 67; 68; 196; 222; 233; 203];
   [84; 123; 148; 50; 166; 194; 35; 61; 238; 76; 149; 11; 66; 250; 195; 78];
   [8; 46; 161; 102; 40; 217; 36; 178; 118; 91; 162; 73; 109; 139; 209; 37];
   [114; 248; 246; 100; 134; 104; 152; 22; 212; 164; 92; 204; 93; 101; 182; 146];
   [108; 112; 72; 80; 253; 237; 185; 218; 94; 21; 70; 87; 167; 141; 157; 132];
   [144; 216; 171; 0; 140; 188; 211; 10; 247; 228; 88; 5; 184; 179; 69; 6];
   [208; 44; 30; 143; 202; 63; 15; 2; 193; 175; 189; 3; 1; 19; 138; 107];
   [58; 145; 17; 65; 79; 103; 220; 234; 151; 242; 207; 206; 240; 180; 230; 115];
   [150; 172; 116; 34; 231; 173; 53; 133; 226; 249; 55; 232; 28; 117; 223; 110];
   [71; 241; 26; 113; 29; 41; 197; 137; 111; 183; 98; 14; 170; 24; 190; 27];
   [252; 86; 62; 75; 198; 210; 121; 32; 154; 219; 192; 254; 120; 205; 90; 244];
   [31; 221; 168; 51; 136; 7; 199; 49; 177; 18; 16; 89; 39; 128; 236; 95];
   [96; 81; 127; 169; 25; 181; 74; 13; 45; 229; 122; 159; 147; 201; 156; 239];
   [160; 224; 59; 77; 174; 42; 245; 176; 200; 235; 187; 60; 131; 83; 153; 97];
   [23; 43; 4; 126; 186; 119; 214; 38; 225; 105; 20; 99; 85; 33; 12; 125]
  ].

Definition inv_sub_byte (b : N) : N := nthN (nth (N.to_nat (N.shiftr b 4)) inv_sbox_tbl []) (N.land b 15).

(* s'[r,(c + r) mod 4] = s[r,c] *)
Definition inv_shift_rows (st : list N) : list N :=
  map (nthN st) [0; 13; 10; 7; 4; 1; 14; 11; 8; 5; 2; 15; 12; 9; 6; 3].

Definition x9 (b : N) : N := N.lxor (xtime (xtime (xtime b))) b.
Definition x11 (b : N) : N := N.lxor (N.lxor (xtime (xtime (xtime b))) (xtime b)) b.
Definition x13 (b : N) : N := N.lxor (N.lxor (xtime (xtime (xtime b))) (xtime (xtime b))) b.
Definition x14 (b : N) : N := N.lxor (N.lxor (xtime (xtime (xtime b))) (xtime (xtime b))) (xtime b).

Definition inv_mix_col (c : list N) : list N :=
  match c with
  | [a0; a1; a2; a3] =>
      [ N.lxor (N.lxor (x14 a0) (x11 a1)) (N.lxor (x13 a2) (x9 a3));
        N.lxor (N.lxor (x9 a0) (x14 a1)) (N.lxor (x11 a2) (x13 a3));
        N.lxor (N.lxor (x13 a0) (x9 a1)) (N.lxor (x14 a2) (x11 a3));
        N.lxor (N.lxor (x11 a0) (x13 a1)) (N.lxor (x9 a2) (x14 a3)) ]
  | _ => c
  end.

Definition inv_mix_columns (st : list N) : list N :=
  inv_mix_col (firstn 4 st) ++ inv_mix_col (firstn 4 (skipn 4 st)) ++
  inv_mix_col (firstn 4 (skipn 8 st)) ++ inv_mix_col (firstn 4 (skipn 12 st)).

(* rks: round keys 9, 8, ..., 1 then the cipher key *)
Fixpoint inv_rounds (st : list N) (rks : list (list N)) : list N :=
  match rks with
  | [] => st
  | [rk] => xor_bytes (map inv_sub_byte (inv_shift_rows st)) rk
  | rk :: t => inv_rounds (inv_mix_columns (xor_bytes (map inv_sub_byte (inv_shift_rows st)) rk)) t
  end.

(* InvCipher of FIPS-197 Figure 12 *)
Definition aes128_decrypt (key block : list N) : list N :=
  match rev (key :: key_expansion key) with
  | rk10 :: rest => inv_rounds (xor_bytes block rk10) rest
  | [] => block
  end.

Example fips197_C1_inv :
  aes128_decrypt [0; 1; 2; 3; 4; 5; 6; 7; 8; 9; 10; 11; 12; 13; 14; 15] [105; 196; 224; 216; 106; 123; 4; 48; 216; 205; 183; 128; 112; 180; 197; 90] = [0; 17; 34; 51; 68; 85; 102; 119; 136; 153; 170; 187; 204; 221; 238; 255].
Proof. vm_compute. reflexivity. Qed.

Example fips197_B_inv :
  aes128_decrypt [43; 126; 21; 22; 40; 174; 210; 166; 171; 247; 21; 136; 9; 207; 79; 60] [57; 37; 132; 29; 2; 220; 9; 251; 220; 17; 133; 151; 25; 106; 11; 50] = [50; 67; 246; 168; 136; 90; 48; 141; 49; 49; 152; 162; 224; 55; 7; 52].
Proof. vm_compute. reflexivity. Qed.
