(* C05OffProofs.v — SetTrunDataOffsets: every trun's data offset is
   moof size + mdat header + total data size of the runs written before it. *)
From Coq Require Import Permutation Sorted.
From V.lib Require Import Base.
From V.c05 Require Import C05Model C05FragModel C05HistProofs.

(* (write-order number, size of data) of a trun: all that SetTrunDataOffsets reads *)
Definition pr (r : trun) : N * N := (tr_won r, size_of_data r).

(* total size of the entries with number below k / of all entries *)
Fixpoint wsum (P : list (N * N)) (k : N) : N :=
  match P with
  | [] => 0
  | (w, z) :: t => (if w <? k then z else 0) + wsum t k
  end.
Fixpoint tsum (P : list (N * N)) : N :=
  match P with [] => 0 | (_, z) :: t => z + tsum t end.

Lemma wsum_perm P Q k : Permutation P Q -> wsum P k = wsum Q k.
Proof.
  induction 1 as [|[w z] l l' _ IH|[w z] [w' z'] l|l l' l'' _ IH1 _ IH2]; cbn [wsum]; try lia.
Qed.

Lemma tsum_perm P Q : Permutation P Q -> tsum P = tsum Q.
Proof.
  induction 1 as [|[w z] l l' _ IH|[w z] [w' z'] l|l l' l'' _ IH1 _ IH2]; cbn [tsum]; try lia.
Qed.

Lemma wsum_le_tsum P k : wsum P k <= tsum P.
Proof. induction P as [|[w z] t IH]; cbn [wsum tsum]; [lia|]. destruct (w <? k); lia. Qed.

Lemma wsum_app P Q k : wsum (P ++ Q) k = wsum P k + wsum Q k.
Proof. induction P as [|[w z] t IH]; cbn [wsum app]; [reflexivity|]. rewrite IH. lia. Qed.

Lemma tsum_app P Q : tsum (P ++ Q) = tsum P + tsum Q.
Proof. induction P as [|[w z] t IH]; cbn [tsum app]; [reflexivity|]. rewrite IH. lia. Qed.

Lemma wsum_all_ge P k : Forall (fun p => k <= fst p) P -> wsum P k = 0.
Proof.
  induction 1 as [|[w z] t Hw _ IH]; cbn [wsum]; [reflexivity|]. cbn [fst] in Hw.
  destruct (w <? k) eqn:E; [apply N.ltb_lt in E; lia|]. rewrite IH. reflexivity.
Qed.

(* ------------------------------------------------------------------ insertion sort *)
Lemma insert_won_perm r l : Permutation (insert_won r l) (r :: l).
Proof.
  induction l as [|x t IH]; cbn [insert_won]; [reflexivity|].
  destruct (tr_won r <=? tr_won x); [reflexivity|].
  rewrite IH. apply perm_swap.
Qed.

Lemma sort_won_perm l : Permutation (sort_won l) l.
Proof.
  induction l as [|x t IH]; cbn [sort_won fold_right]; [reflexivity|].
  fold (sort_won t). rewrite insert_won_perm. constructor. exact IH.
Qed.

Definition won_le (a b : trun) : Prop := tr_won a <= tr_won b.

Lemma insert_won_sorted r l : StronglySorted won_le l -> StronglySorted won_le (insert_won r l).
Proof.
  induction 1 as [|x t Hs IH Hx]; cbn [insert_won]; [repeat constructor|].
  destruct (tr_won r <=? tr_won x) eqn:E.
  - apply N.leb_le in E. constructor; [constructor; assumption|].
    constructor; [exact E|]. eapply Forall_impl; [|exact Hx]. unfold won_le. intros a Ha. lia.
  - apply N.leb_gt in E. constructor; [exact IH|].
    eapply Permutation_Forall; [symmetry; apply insert_won_perm|].
    constructor; [unfold won_le; lia|exact Hx].
Qed.

Lemma sort_won_sorted l : StronglySorted won_le (sort_won l).
Proof.
  induction l as [|x t IH]; cbn [sort_won fold_right]; [constructor|].
  apply insert_won_sorted. exact IH.
Qed.

(* ------------------------------------------------------------------ the walk over the sorted runs *)
Lemma lookup_assign S : forall base d r,
  StronglySorted won_le S -> NoDup (map tr_won S) ->
  base + tsum (map pr S) < 18446744073709551616 ->
  In r S ->
  lookup_off (assign_offsets S base) (tr_won r) d = i32 (base + wsum (map pr S) (tr_won r)).
Proof.
  induction S as [|a S IH]; intros base d r Hs Hd Hb Hin; [destruct Hin|].
  inversion Hs as [|? ? Hs' Ha]; subst. cbn [map] in Hd. inversion Hd as [|? ? Hna Hd']; subst.
  cbn [assign_offsets lookup_off map pr wsum tsum] in *. fold (pr a) in *.
  destruct (tr_won a =? tr_won r) eqn:E.
  - apply N.eqb_eq in E. rewrite E, N.ltb_irrefl.
    rewrite wsum_all_ge; [f_equal; lia|].
    apply Forall_forall. intros p Hp. apply in_map_iff in Hp. destruct Hp as (x & <- & Hx).
    cbn [pr fst]. rewrite Forall_forall in Ha. specialize (Ha x Hx). unfold won_le in Ha. lia.
  - apply N.eqb_neq in E. destruct Hin as [->|Hin]; [congruence|].
    rewrite Forall_forall in Ha. pose proof (Ha r Hin) as Hle. unfold won_le in Hle.
    assert (Hlt : tr_won a <? tr_won r = true) by (apply N.ltb_lt; lia). rewrite Hlt.
    assert (Hu : u64 (base + size_of_data a) = base + size_of_data a) by (unfold u64; apply N.mod_small; lia).
    rewrite Hu. rewrite IH; try assumption; [f_equal; lia|lia].
Qed.

(* ------------------------------------------------------------------ set_offsets, for any fragment whose
   write-order numbers are pairwise different *)
Definition with_offsets (fr : frag) (f : trun -> Z) : list traf :=
  map (fun t => mkTraf (tf_hd t) (tf_dt t) (map (fun r => tr_with_doff r (f r)) (tf_truns t)) (tf_extra t))
      (fr_trafs fr).

(* SetTrunDataOffsets returns early when no trun has a write-order number and there are several truns *)
Definition early (fr : frag) : bool :=
  negb (existsb (fun r => negb (tr_won r =? 0)) (all_truns (fr_trafs fr))) && (1 <? lenN (all_truns (fr_trafs fr))).

(* otherwise it rewrites every data offset and calls Mdat.Size() *)
Lemma set_offsets_cases fr :
  set_offsets fr = if early fr then fr
                   else fr_with fr (with_offsets fr (fun r => lookup_off
                          (assign_offsets (sort_won (all_truns (fr_trafs fr)))
                             (moof_size fr + md_header_size (md_size_touch (fr_mdat fr)))) (tr_won r) (tr_doff r)))
                          (md_size_touch (fr_mdat fr)) (fr_next fr).
Proof. reflexivity. Qed.

Lemma xframe_with_offsets fr f m n : xframe (fr_with fr (with_offsets fr f) m n) fr.
Proof. apply xframe_with. unfold with_offsets. rewrite map_map. reflexivity. Qed.

Lemma set_offsets_or fr :
  set_offsets fr = fr \/ exists f, set_offsets fr = fr_with fr (with_offsets fr f) (md_size_touch (fr_mdat fr)) (fr_next fr).
Proof. rewrite set_offsets_cases. destruct (early fr); [left; reflexivity|right; eexists; reflexivity]. Qed.

Lemma set_offsets_frame fr : xframe (set_offsets fr) fr.
Proof. destruct (set_offsets_or fr) as [->|[f ->]]; [apply xframe_refl|apply xframe_with_offsets]. Qed.

Lemma nodup_not_early fr : NoDup (map tr_won (all_truns (fr_trafs fr))) -> early fr = false.
Proof.
  intros Hd. unfold early. destruct (all_truns (fr_trafs fr)) as [|a [|b t]]; [reflexivity|apply andb_false_r|].
  cbn [existsb map] in *. destruct (tr_won a =? 0) eqn:Ea; [|reflexivity]. destruct (tr_won b =? 0) eqn:Eb; [|reflexivity].
  apply N.eqb_eq in Ea, Eb. inversion Hd as [|? ? Hn _]; subst. exfalso. apply Hn. left. congruence.
Qed.

Lemma set_offsets_spec fr :
  let L := all_truns (fr_trafs fr) in
  let m := md_size_touch (fr_mdat fr) in
  let base := moof_size fr + md_header_size m in
  NoDup (map tr_won L) ->
  base + tsum (map pr L) < 2147483648 ->
  set_offsets fr = fr_with fr (with_offsets fr (fun r => Z.of_N (base + wsum (map pr L) (tr_won r)))) m (fr_next fr).
Proof.
  intros L m base Hd Hb. rewrite set_offsets_cases, (nodup_not_early fr Hd). fold L m base.
  f_equal. unfold with_offsets. apply map_ext_in. intros t Ht. f_equal.
  apply map_ext_in. intros r Hr. f_equal.
  assert (Hin : In r L). { unfold L, all_truns. apply in_flat_map. exists t. split; assumption. }
  pose proof (sort_won_perm L) as Hp.
  rewrite (lookup_assign (sort_won L) base (tr_doff r) r).
  - rewrite (wsum_perm _ (map pr L)) by (apply Permutation_map; exact Hp).
    apply i32_small. pose proof (wsum_le_tsum (map pr L) (tr_won r)). lia.
  - apply sort_won_sorted.
  - eapply Permutation_NoDup; [|exact Hd]. apply Permutation_map. symmetry. exact Hp.
  - rewrite (tsum_perm _ (map pr L)) by (apply Permutation_map; exact Hp). lia.
  - eapply Permutation_in; [symmetry; exact Hp|exact Hin].
Qed.

(* ------------------------------------------------------------------ in terms of the runs *)
(* (index, data size) of every run *)
Fixpoint prs (rr : runs) : list (N * N) :=
  match rr with
  | [] => []
  | (_, ss) :: rest => (lenN rest, sizes_sum ss) :: prs rest
  end.

(* total data size of the runs written before run k *)
Definition run_pos (rr : runs) (k : N) : N := wsum (prs rr) k.

Lemma flat_map_single {A} (T' : N) (c : A) (tracks : list N) :
  In T' tracks -> NoDup tracks ->
  Permutation (flat_map (fun T => if T' =? T then [c] else []) tracks) [c].
Proof.
  induction tracks as [|x t IH]; intros Hin Hd; [destruct Hin|].
  inversion Hd as [|? ? Hn Hd']; subst. cbn [flat_map].
  destruct (T' =? x) eqn:E.
  - apply N.eqb_eq in E. subst x. cbn [app].
    assert (Hz : flat_map (fun T => if T' =? T then [c] else []) t = []).
    { clear IH Hd Hd' Hin. induction t as [|y t IHt]; [reflexivity|]. cbn [flat_map].
      destruct (T' =? y) eqn:Ey; [apply N.eqb_eq in Ey; subst; exfalso; apply Hn; left; reflexivity|].
      cbn [app]. apply IHt. intros H. apply Hn. right. exact H. }
    rewrite Hz. reflexivity.
  - cbn [app]. apply IH; [|exact Hd']. destruct Hin as [->|H]; [rewrite N.eqb_refl in E; discriminate|exact H].
Qed.

Lemma flat_map_app_perm {A B} (f g : A -> list B) l :
  Permutation (flat_map (fun a => f a ++ g a) l) (flat_map f l ++ flat_map g l).
Proof.
  induction l as [|a t IH]; cbn [flat_map]; [reflexivity|].
  rewrite IH. rewrite <- !app_assoc. apply Permutation_app_head.
  rewrite !app_assoc. apply Permutation_app_tail. apply Permutation_app_comm.
Qed.

Lemma truns_perm_prs tracks rr :
  NoDup tracks -> Forall (fun p => In (fst p) tracks) rr ->
  Permutation (map pr (flat_map (fun T => mk_truns T rr) tracks)) (prs rr).
Proof.
  intros Hd. induction 1 as [|[T' ss] rest HT _ IH]; cbn [mk_truns prs].
  - induction tracks; [constructor|]. cbn [flat_map app]. inversion Hd; subst; auto.
  - cbn [fst] in HT.
    rewrite (Permutation_map pr (flat_map_app_perm (fun T => mk_truns T rest)
                (fun T => if T' =? T then [canon (lenN rest) ss] else []) tracks)).
    rewrite map_app. rewrite IH.
    rewrite (Permutation_map pr (flat_map_single T' (canon (lenN rest) ss) tracks HT Hd)).
    cbn [map pr canon tr_won]. unfold size_of_data. cbn [tr_samples]. fold (sizes_sum ss).
    symmetry. apply Permutation_cons_append.
Qed.

Lemma prs_wons_lt rr : Forall (fun p => fst p < lenN rr) (prs rr).
Proof.
  induction rr as [|[T ss] rest IH]; cbn [prs]; [constructor|]. rewrite lenN_cons. constructor; [cbn [fst]; lia|].
  eapply Forall_impl; [|exact IH]. cbn beta. intros p Hp. lia.
Qed.

Lemma prs_nodup rr : NoDup (map fst (prs rr)).
Proof.
  induction rr as [|[T ss] rest IH]; cbn [prs map fst]; [constructor|]. constructor; [|exact IH].
  intros Hin. apply in_map_iff in Hin. destruct Hin as (p & Hp & Hin).
  pose proof (prs_wons_lt rest) as F. rewrite Forall_forall in F. specialize (F p Hin). lia.
Qed.

Lemma all_truns_multi fr rr :
  multi_inv rr fr -> all_truns (fr_trafs fr) = flat_map (fun T => mk_truns T rr) (map track_of (fr_trafs fr)).
Proof.
  intros (_ & _ & Hf). unfold all_truns. induction (fr_trafs fr) as [|t ts IH]; [reflexivity|].
  inversion Hf as [|? ? Ht Hf']; subst. cbn [flat_map map]. rewrite Ht, (IH Hf'). reflexivity.
Qed.

(* data offsets of a multi-track fragment in terms of its runs; `same` lets the truns differ from the ones
   the history built in everything but (write-order number, samples): this is what optimisation does *)
Lemma set_offsets_runs fr rr :
  let L := all_truns (fr_trafs fr) in
  let m := md_size_touch (fr_mdat fr) in
  let base := moof_size fr + md_header_size m in
  Permutation (map pr L) (prs rr) ->
  base + tsum (prs rr) < 2147483648 ->
  set_offsets fr = fr_with fr (with_offsets fr (fun r => Z.of_N (base + run_pos rr (tr_won r)))) m (fr_next fr).
Proof.
  intros L m base Hp Hb.
  assert (Hd : NoDup (map tr_won L)).
  { replace (map tr_won L) with (map fst (map pr L)) by (rewrite map_map; reflexivity).
    eapply Permutation_NoDup; [apply Permutation_map; symmetry; exact Hp|apply prs_nodup]. }
  rewrite set_offsets_spec; fold L; fold m; fold base; [|exact Hd|rewrite (tsum_perm _ _ Hp); exact Hb].
  f_equal. unfold with_offsets. apply map_ext. intros t. f_equal. apply map_ext. intros r.
  unfold run_pos. rewrite (wsum_perm _ _ _ Hp). reflexivity.
Qed.
