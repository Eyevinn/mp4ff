(* C05EncCodecProofs.v — DecodeTrun's count guard (more than 1024 samples need a per-sample field) against what
   OptimizeTfhdTrun writes, for truns of ANY flag word: the composition-offset field is what fix 6c7a902 keeps, so
   the guarantee is exactly for truns that have it; a trun without it (hand-made, decoded, or — through the API —
   one that an EARLIER Encode with OptimizeTrun already stripped) can still be optimised bare. *)
From V.lib Require Import Base.
From V.c05 Require Import C05Model C05FragModel C05CodecModel C05CodecProofs C05OptProofs C05EncHistModel.

Definition bare_s : sample := mkSample 16842752 10 1 0.

(* through the API, with an optimised Encode in the middle of the history (same class as finding C05-F10):
   CreateFragment(1,1); 2 equal samples; Encode with OptimizeTrun (flags become 0x001); 1023 more equal samples;
   Encode: the state passes enc_guard (every value IS the tfhd default), the fragment encodes, and the trun that is
   written has 1025 samples and no per-sample field: DecodeTrun refuses it *)
Definition bare_hs : list hop :=
  [HAdd (OFull bare_s 0 [7]); HAdd (OFull bare_s 10 [7]); HEnc true]
  ++ map (fun k => HAdd (OFull bare_s (10 * N.of_nat k) [7])) (seq 2 1023).

(* AddFullSample on a fragment whose first trun holds samples already: the sample and its bytes are appended, nothing
   else changes; so n equal calls in a row append n copies (the 1023 additions of bare_hs are not run one by one) *)
Lemma run_hops_fulls s d (dts : nat -> N) : forall l fr t ts r rs,
  fr_trafs fr = t :: ts -> tf_truns t = r :: rs -> tr_samples r <> [] ->
  lenN (tr_samples r ++ repeat s (length l)) < 4294967296 ->
  run_hops fr (map (fun k => HAdd (OFull s (dts k) d)) l) =
    (repeat COk (length l),
     Some (fr_with fr (mkTraf (tf_hd t) (tf_dt t) (tr_add r (repeat s (length l)) :: rs) (tf_extra t) :: ts)
             (md_add_data (fr_mdat fr) (concat (repeat d (length l)))) (fr_next fr))).
Proof.
  induction l as [|k l IH]; intros fr t ts r rs Ht Hr Hne Hb; cbn [map run_hops length repeat concat].
  - destruct fr as [trafs m n a b c], t as [h dt truns e], r, m. cbn [fr_trafs tf_truns] in Ht, Hr. subst trafs truns.
    unfold tr_add, tr_with_samples, md_add_data, fr_with. cbn. rewrite !app_nil_r. reflexivity.
  - cbn [step]. unfold add_first. rewrite Ht, Hr. cbn [rbind].
    assert (E : u32 (lenN (tr_samples r)) =? 0 = false).
    { unfold u32. rewrite N.mod_small by (eapply N.le_lt_trans; [|exact Hb]; rewrite lenN_app; apply N.le_add_r).
      apply N.eqb_neq. destruct (tr_samples r); [congruence|]. rewrite lenN_cons, N.add_1_l. apply N.neq_succ_0. }
    rewrite E.
    rewrite (IH (fr_with fr (mkTraf (tf_hd t) (tf_dt t) (tr_add r [s] :: rs) (tf_extra t) :: ts) (md_add_data (fr_mdat fr) d) (fr_next fr))
               (mkTraf (tf_hd t) (tf_dt t) (tr_add r [s] :: rs) (tf_extra t)) ts (tr_add r [s]) rs eq_refl eq_refl).
    + unfold tr_add, tr_with_samples, md_add_data, fr_with. cbn. rewrite <- !app_assoc. reflexivity.
    + cbn [tr_add tr_with_samples tr_samples]. destruct (tr_samples r); discriminate.
    + cbn [tr_add tr_with_samples tr_samples]. rewrite <- app_assoc. exact Hb.
Qed.

Lemma run_hops_app h1 h2 fr cs1 fr1 :
  run_hops fr h1 = (cs1, Some fr1) ->
  run_hops fr (h1 ++ h2) = (cs1 ++ fst (run_hops fr1 h2), snd (run_hops fr1 h2)).
Proof.
  revert fr cs1. induction h1 as [|[o|opt] h1 IH]; intros fr cs1; cbn [app run_hops].
  - intros [= <- <-]. destruct (run_hops fr h2); reflexivity.
  - destruct (step fr o) as [fr'| | |]; try discriminate.
    + destruct (run_hops fr' h1) as [c r] eqn:E. intros [= <- ->]. rewrite (IH _ _ E). reflexivity.
    + destruct (run_hops fr h1) as [c r] eqn:E. intros [= <- ->]. rewrite (IH _ _ E). reflexivity.
  - destruct (encode_state opt fr) as [c [fr'|]]; [|discriminate].
    destruct (run_hops fr' h1) as [c' r] eqn:E. intros [= <- ->]. rewrite (IH _ _ E). reflexivity.
Qed.

Lemma encodes_opt_bare_refuted :
  exists cs fr fe t r,
    run_hops (create_fragment 1) bare_hs = (cs, Some fr) /\
    enc_guard fr = true /\
    encode_frag true fr = Ok fe /\
    fr_trafs fe = [t] /\ tf_truns t = [r] /\ length (tr_samples r) = 1025%nat /\ tr_flags r = 1 /\
    forallb sample_wf (tr_samples r) = true /\
    dec_trun (trun_size r) (enc_trun_body r) = Err.
Proof.
  (* the state reached, written with `repeat` so that the terms the kernel compares stay small; the second Encode
     changes nothing: the offset 104 = moof 96 + mdat header 8 was already written by the first one, and a trun with
     flags 0x001 does not grow with its samples *)
  pose (r := mkTrun 1 1 104 0 (repeat bare_s 1025) 0).
  pose (t := mkTraf (mkTfhd 131128 1 0 1 10 1 16842752) (mkTfdt 0 0) [r] 0).
  pose (fr := mkFrag [t] (mkMdat (repeat 7 1025) [] 0 false) 1 0 0 0).
  exists (repeat COk 1026), fr, fr, t, r.
  split; [|split; [vm_compute; reflexivity|split; [exact (@eq_refl _ (Ok fr) <: encode_frag true fr = Ok fr)|repeat apply conj; vm_compute; reflexivity]]].
  (* the first three calls by evaluation, the 1023 equal additions by run_hops_fulls *)
  pose (r3 := mkTrun 1 1 104 0 [bare_s; bare_s] 0).
  pose (t3 := mkTraf (mkTfhd 131128 1 0 1 10 1 16842752) (mkTfdt 0 0) [r3] 0).
  pose (fr3 := mkFrag [t3] (mkMdat [7; 7] [] 0 false) 1 0 0 0).
  unfold bare_hs. rewrite (run_hops_app _ _ _ [COk; COk; COk] fr3) by (vm_compute; reflexivity).
  rewrite (run_hops_fulls bare_s [7] (fun k => 10 * N.of_nat k) (seq 2 1023) fr3 t3 [] r3 [] eq_refl eq_refl)
    by (try discriminate; rewrite seq_length; vm_compute; reflexivity).
  rewrite seq_length. vm_compute. reflexivity.
Qed.
