(* C05EncGuardProofs.v — the second half of enc_guard is an invariant of every history over a created fragment: only the
   first trun of the first traf is ever touched by OptimizeTfhdTrun, every other trun keeps the flag word CreateTrun gave
   it (all four per-sample fields).  So the guard of C05_roundtrip_with_encodes_guarded is the first trun's alone. *)
From V.lib Require Import Base.
From V.c05 Require Import C05Model C05FragModel C05OptProofs C05HistProofs C05GhostProofs C05ReadProofs C05RoundProofs
  C05EncHistModel C05EncHistProofs C05EncRoundProofs.

Definition others4 (fr : frag) : bool :=
  match fr_trafs fr with
  | [] => true
  | t :: ts => forallb all4 (tl (tf_truns t)) && forallb (fun t' => forallb all4 (tf_truns t')) ts
  end.

Lemma all4_add r ss : all4 (tr_add r ss) = all4 r.
Proof. reflexivity. Qed.
Lemma all4_create n : all4 (create_trun n) = true.
Proof. reflexivity. Qed.
Lemma all4_doff r z : all4 (tr_with_doff r z) = all4 r.
Proof. reflexivity. Qed.

Lemma forallb_app {A} (p : A -> bool) l1 l2 : forallb p (l1 ++ l2) = forallb p l1 && forallb p l2.
Proof. induction l1 as [|a l IH]; [reflexivity|]. cbn [app forallb]. rewrite IH, andb_assoc. reflexivity. Qed.

Lemma forallb_removelast {A} (p : A -> bool) l : forallb p l = true -> forallb p (removelast l) = true.
Proof.
  induction l as [|a l IH]; [reflexivity|]. cbn [forallb removelast]. intros H. apply andb_true_iff in H. destruct H as [H1 H2].
  destruct l; [reflexivity|]. cbn [forallb]. rewrite H1. exact (IH H2).
Qed.

Lemma forallb_last {A} (p : A -> bool) l d : forallb p l = true -> p d = true -> p (last l d) = true.
Proof.
  induction l as [|a l IH]; intros H Hd; [exact Hd|]. cbn [forallb] in H. apply andb_true_iff in H. destruct H as [H1 H2].
  cbn [last]. destruct l; [exact H1|]. exact (IH H2 Hd).
Qed.

(* the trun list of a traf after AddSampleToTrack *)
Lemma add_to_traf_all t next s dts :
  forallb all4 (tf_truns t) = true -> forallb all4 (tf_truns (fst (add_to_traf t next s dts))) = true.
Proof.
  intros H. unfold add_to_traf.
  destruct (tf_truns t) as [|r rs] eqn:E; cbn beta iota zeta.
  - match goal with |- context [if ?c then _ else _] => destruct c end; reflexivity.
  - match goal with |- context [if ?c then _ else _] => destruct c end; cbn [fst tf_truns].
    + rewrite forallb_app, H. reflexivity.
    + rewrite forallb_app. rewrite (forallb_removelast _ _ H). cbn [forallb]. rewrite all4_add, andb_true_r.
      apply forallb_last; [exact H|reflexivity].
Qed.

Lemma add_to_traf_tl t next s dts :
  forallb all4 (tl (tf_truns t)) = true -> forallb all4 (tl (tf_truns (fst (add_to_traf t next s dts)))) = true.
Proof.
  intros H. unfold add_to_traf.
  destruct (tf_truns t) as [|r rs] eqn:E; cbn beta iota zeta.
  - match goal with |- context [if ?c then _ else _] => destruct c end; reflexivity.
  - cbn [tl] in H. match goal with |- context [if ?c then _ else _] => destruct c end; cbn [fst tf_truns].
    + cbn [app tl]. rewrite forallb_app, H. reflexivity.
    + destruct rs as [|r2 rs2]; [reflexivity|].
      change (removelast (r :: r2 :: rs2)) with (r :: removelast (r2 :: rs2)). cbn [app tl].
      change (last (r :: r2 :: rs2) (create_trun 0)) with (last (r2 :: rs2) (create_trun 0)).
      rewrite forallb_app. rewrite (forallb_removelast _ _ H). cbn [forallb]. rewrite all4_add, andb_true_r.
      apply forallb_last; [exact H|reflexivity].
Qed.

Lemma add_to_track_trafs_all ts : forall track next s dts ts' n',
  forallb (fun t' => forallb all4 (tf_truns t')) ts = true ->
  add_to_track_trafs ts track next s dts = Some (ts', n') ->
  forallb (fun t' => forallb all4 (tf_truns t')) ts' = true.
Proof.
  induction ts as [|t ts IH]; intros track next s dts ts' n' Ha H; cbn [add_to_track_trafs] in H; [discriminate|].
  cbn [forallb] in Ha. apply andb_true_iff in Ha. destruct Ha as [A1 A2].
  destruct (tf_track (tf_hd t) =? track).
  - pose proof (add_to_traf_all t next s dts A1) as E. destruct (add_to_traf t next s dts) as [t1 n1]. cbn [fst] in E.
    injection H as <- _. cbn [forallb]. rewrite E, A2. reflexivity.
  - destruct (add_to_track_trafs ts track next s dts) as [[r n]|] eqn:Er; [|discriminate].
    injection H as <- _. cbn [forallb]. rewrite A1, (IH _ _ _ _ _ _ A2 Er). reflexivity.
Qed.

Lemma add_sample_to_track_others fr track s dts fr' :
  others4 fr = true -> add_sample_to_track fr track s dts = Ok fr' -> others4 fr' = true.
Proof.
  unfold add_sample_to_track, others4. intros Ho H.
  destruct (add_to_track_trafs (fr_trafs fr) track (fr_next fr) s dts) as [[ts n]|] eqn:E; [|discriminate].
  injection H as <-. cbn [fr_with fr_trafs].
  destruct (fr_trafs fr) as [|t rest]; cbn [add_to_track_trafs] in E; [discriminate|].
  apply andb_true_iff in Ho. destruct Ho as [O1 O2].
  destruct (tf_track (tf_hd t) =? track).
  - pose proof (add_to_traf_tl t (fr_next fr) s dts O1) as E1. destruct (add_to_traf t (fr_next fr) s dts) as [t1 n1]. cbn [fst] in E1.
    injection E as <- _. rewrite E1, O2. reflexivity.
  - destruct (add_to_track_trafs rest track (fr_next fr) s dts) as [[r n0]|] eqn:Er; [|discriminate].
    injection E as <- _. rewrite O1, (add_to_track_trafs_all _ _ _ _ _ _ _ O2 Er). reflexivity.
Qed.

Lemma add_first_others fr ss dts ts :
  others4 fr = true -> add_first fr ss dts = Ok ts ->
  match ts with [] => true | t :: ts' => forallb all4 (tl (tf_truns t)) && forallb (fun t' => forallb all4 (tf_truns t')) ts' end = true.
Proof.
  unfold others4, add_first. destruct (fr_trafs fr) as [|t rest]; [discriminate|].
  destruct (tf_truns t) as [|r rs]; [discriminate|]. intros Ho [= <-]. exact Ho.
Qed.

Lemma step_others a o a' : others4 a = true -> step a o = Ok a' -> others4 a' = true.
Proof.
  intros Ho. destruct o as [s d data|t s d data|t s d|s d|ss d|d ss data]; cbn [step]; intros H.
  - destruct (add_first a [s] d) as [ts| | |] eqn:E; try discriminate. injection H as <-.
    exact (add_first_others _ _ _ _ Ho E).
  - destruct (add_sample_to_track a t s d) as [a1| | |] eqn:E; try discriminate. cbn [rbind] in H. injection H as <-.
    exact (add_sample_to_track_others _ _ _ _ _ Ho E).
  - exact (add_sample_to_track_others _ _ _ _ _ Ho H).
  - destruct (add_first a [s] d) as [ts| | |] eqn:E; try discriminate. injection H as <-.
    exact (add_first_others _ _ _ _ Ho E).
  - destruct (add_first a ss d) as [ts| | |] eqn:E; try discriminate. injection H as <-.
    exact (add_first_others _ _ _ _ Ho E).
  - destruct (fr_trafs a) as [|t [|t2 ts]] eqn:Et; try discriminate.
    destruct (tf_truns t) as [|r [|r2 rs]]; try discriminate.
    destruct (md_add_part (fr_mdat a) data) as [m| | |]; try discriminate. cbn [rbind] in H. injection H as <-. reflexivity.
Qed.

Lemma forallb_map {A B} (p : B -> bool) (f : A -> B) l : forallb p (map f l) = forallb (fun a => p (f a)) l.
Proof. induction l as [|a l IH]; [reflexivity|]. cbn [map forallb]. rewrite IH. reflexivity. Qed.

Lemma forallb_ext' {A} (p q : A -> bool) l : (forall a, p a = q a) -> forallb p l = forallb q l.
Proof. intros H. induction l as [|a l IH]; [reflexivity|]. cbn [forallb]. rewrite H, IH. reflexivity. Qed.

Lemma set_offsets_others a : others4 (set_offsets a) = others4 a.
Proof.
  unfold set_offsets. destruct (_ && _); [reflexivity|]. unfold others4. cbn [fr_with fr_trafs].
  destruct (fr_trafs a) as [|t ts]; [reflexivity|]. cbn [map tf_truns]. f_equal.
  - destruct (tf_truns t) as [|r rs]; [reflexivity|]. cbn [map tl]. rewrite forallb_map. reflexivity.
  - rewrite forallb_map. apply forallb_ext'. intros t'. cbn [tf_truns]. rewrite forallb_map. reflexivity.
Qed.

Lemma optimize_first_others a a1 : optimize_first a = Ok a1 -> others4 a1 = others4 a.
Proof.
  unfold optimize_first, others4. destruct (fr_trafs a) as [|t ts] eqn:Et; [intros [= <-]; rewrite Et; reflexivity|].
  destruct (tf_truns t) as [|r rs] eqn:Er; [intros [= <-]; rewrite Et, Er; reflexivity|].
  destruct (optimize (tf_hd t) r) as [[h' r']| | |]; try discriminate. cbn [rbind]. intros [= <-]. reflexivity.
Qed.

Lemma encode_state_others opt a c a' : others4 a = true -> encode_state opt a = (c, Some a') -> others4 a' = true.
Proof.
  unfold encode_state. intros Ho H.
  destruct (if opt then optimize_first a else Ok a) as [a1| | |] eqn:E1; try discriminate.
  - assert (O1 : others4 a1 = true).
    { destruct opt; [rewrite (optimize_first_others _ _ E1); exact Ho|injection E1 as <-; exact Ho]. }
    cbn zeta in H. pose proof (set_offsets_others a1) as O2. rewrite O1 in O2.
    destruct (existsb doff_unset (all_truns (fr_trafs (set_offsets a1)))); injection H as _ <-; exact O2.
  - injection H as _ <-. exact Ho.
Qed.

Lemma hops_others hs a cs a' : others4 a = true -> run_hops a hs = (cs, Some a') -> others4 a' = true.
Proof.
  apply (run_hops_inv (fun f => others4 f = true)).
  - intros x o x' Ho E. exact (step_others _ _ _ Ho E).
  - intros opt x c x' Ho E. exact (encode_state_others _ _ _ _ Ho E).
Qed.

Lemma set_extras_truns ts : forall exs, map tf_truns (set_extras ts exs) = map tf_truns ts.
Proof.
  induction ts as [|t ts IH]; intros exs; [destruct exs; reflexivity|]. destruct exs as [|e exs]; [reflexivity|].
  cbn [set_extras map tf_truns]. rewrite IH. reflexivity.
Qed.

Lemma others4_truns a b : map tf_truns (fr_trafs a) = map tf_truns (fr_trafs b) -> others4 a = others4 b.
Proof.
  unfold others4. destruct (fr_trafs a) as [|t ts], (fr_trafs b) as [|t' ts']; cbn [map]; try discriminate; [reflexivity|].
  intros [= E1 E2]. rewrite E1. f_equal.
  revert ts' E2. induction ts as [|x ts IH]; intros [|y ts'] E2; cbn [map] in E2; try discriminate; [reflexivity|].
  injection E2 as E3 E4. cbn [forallb]. rewrite E3, (IH _ E4). reflexivity.
Qed.

Lemma create_multi_others tracks pre mx post exs : others4 (with_extras (create_multi tracks) pre mx post exs) = true.
Proof.
  rewrite (others4_truns _ (create_multi tracks)) by (unfold with_extras; cbn [fr_trafs]; apply set_extras_truns).
  unfold others4, create_multi. cbn [fr_trafs]. destruct tracks as [|T rest]; [reflexivity|]. cbn [map tf_truns tl forallb].
  rewrite forallb_map. apply forallb_forall. intros x _. reflexivity.
Qed.

Lemma create_fragment_others T pre mx post exs : others4 (with_extras (create_fragment T) pre mx post exs) = true.
Proof.
  rewrite (others4_truns _ (create_fragment T)) by (unfold with_extras; cbn [fr_trafs]; apply set_extras_truns).
  reflexivity.
Qed.

(* the guard, split *)
Definition first_selfres (fr : frag) : bool :=
  match fr_trafs fr with
  | t :: _ => match tf_truns t with r :: _ => trun_selfres (tf_hd t) r | [] => true end
  | [] => true
  end.

Lemma enc_guard_split fr : enc_guard fr = first_selfres fr && others4 fr.
Proof.
  unfold enc_guard, first_selfres, others4. destruct (fr_trafs fr) as [|t ts]; [reflexivity|].
  destruct (tf_truns t) as [|r rs]; [reflexivity|]. cbn [tl]. rewrite andb_assoc. reflexivity.
Qed.
