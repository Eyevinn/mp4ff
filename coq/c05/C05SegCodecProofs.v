(* C05SegCodecProofs.v — decoding the bytes written for a moof (no extra children) and the mdat gives back the
   wire view the round-trip theorems speak about.  What Encode writes is put in closed form first (a box, a run of
   sibling boxes of one type); the decoders are then followed over these forms. *)
From V.lib Require Import Base.
From V.c05 Require Import C05Model C05FragModel C05CodecModel C05CodecProofs C05OptProofs C05HistProofs C05GhostProofs C05ReadProofs
  C05RoundProofs C05LazyRoundProofs C05SegModel C05SegProofs C05SegCodecModel.

(* ------------------------------------------------------------------ a box: 32-bit size, type, body *)
Definition box (typ body : list N) : list N := be32 (8 + lenN body) ++ typ ++ body.

Lemma firstn_app_exact {A} (a b : list A) : firstn (length a) (a ++ b) = a.
Proof. induction a as [|x a IH]; cbn [length firstn app]; [destruct b; reflexivity|]. rewrite IH. reflexivity. Qed.

Lemma skipn_app_exact {A} (a b : list A) : skipn (length a) (a ++ b) = b.
Proof. induction a as [|x a IH]; cbn [length skipn app]; [reflexivity|exact IH]. Qed.

Lemma lenN_be32 x : lenN (be32 x) = 4.
Proof. reflexivity. Qed.
Lemma lenN_be64 x : lenN (be64 x) = 8.
Proof. reflexivity. Qed.

Lemma lenN_box typ body : lenN (box typ body) = 4 + lenN typ + lenN body.
Proof. unfold box. rewrite !lenN_app, lenN_be32. lia. Qed.

Lemma length_box typ body : length (box typ body) = (4 + length typ + length body)%nat.
Proof. unfold box, be32. cbn [app length]. rewrite app_length. reflexivity. Qed.

(* once the header is read and the size it gives is that of `body`, the box is cut off behind `body` *)
Lemma next_box_header l typ hl body rest :
  dec_header l = Ok (typ, hl + lenN body, hl, body ++ rest) ->
  next_box l = Ok (typ, hl + lenN body, hl, body, rest).
Proof.
  intros H. unfold next_box. rewrite H. cbn [rbind]. replace (hl + lenN body - hl) with (lenN body) by lia.
  rewrite lenN_app. destruct (N.ltb_spec (lenN body + lenN rest) (lenN body)) as [E|_]; [lia|].
  unfold lenN. rewrite Nat2N.id, firstn_app_exact, skipn_app_exact. reflexivity.
Qed.

Lemma next_box_box a b c d body rest :
  8 + lenN body < 4294967296 ->
  next_box (box [a; b; c; d] body ++ rest) = Ok ([a; b; c; d], 8 + lenN body, 8, body, rest).
Proof.
  intros H. apply next_box_header. unfold dec_header, box. rewrite <- !app_assoc. rewrite rd32_be32 by exact H. cbn [app].
  destruct (N.eqb_spec (8 + lenN body) 1); [lia|]. destruct (N.eqb_spec (8 + lenN body) 0); [lia|].
  destruct (N.ltb_spec (8 + lenN body) 8); [lia|reflexivity].
Qed.

Lemma next_box_large body rest :
  16 + lenN body < 18446744073709551616 ->
  next_box (be32 1 ++ T_MDAT ++ be64 (16 + lenN body) ++ body ++ rest) = Ok (T_MDAT, 16 + lenN body, 16, body, rest).
Proof.
  intros H. apply next_box_header. unfold dec_header. rewrite rd32_be32 by lia. unfold T_MDAT. cbn [app].
  change (1 =? 1) with true. cbn iota. rewrite rd64_be64 by exact H.
  destruct (N.ltb_spec (16 + lenN body) 16); [lia|reflexivity].
Qed.

(* one step of the children loop *)
Lemma dec_boxes_next {A} (dec1 : list N -> N -> list N -> res A) f l typ size hl body rest v vs :
  next_box l = Ok (typ, size, hl, body, rest) -> dec1 typ size body = Ok v -> dec_boxes f dec1 rest = Ok vs ->
  dec_boxes (S f) dec1 l = Ok (v :: vs).
Proof.
  intros Hn H1 H2. destruct l as [|x l]; [discriminate Hn|]. cbn [dec_boxes]. rewrite Hn. cbn [rbind]. rewrite H1. cbn [rbind].
  rewrite H2. reflexivity.
Qed.

Lemma dec_boxes_step {A} (dec1 : list N -> N -> list N -> res A) f a b c d body rest v vs :
  8 + lenN body < 4294967296 ->
  dec1 [a; b; c; d] (8 + lenN body) body = Ok v -> dec_boxes f dec1 rest = Ok vs ->
  dec_boxes (S f) dec1 (box [a; b; c; d] body ++ rest) = Ok (v :: vs).
Proof. intros H. apply dec_boxes_next with (hl := 8). apply next_box_box. exact H. Qed.

(* ------------------------------------------------------------------ a run of sibling boxes of one type *)
Lemma dec_boxes_run {A C} (dec1 : list N -> N -> list N -> res C) a b c d (body : A -> list N) (wire : A -> C) l :
  Forall (fun x => 8 + lenN (body x) < 4294967296 /\ dec1 [a; b; c; d] (8 + lenN (body x)) (body x) = Ok (wire x)) l ->
  forall f, (length l <= f)%nat ->
  dec_boxes f dec1 (flat_map (fun x => box [a; b; c; d] (body x)) l) = Ok (map wire l).
Proof.
  induction 1 as [|x l [Hs Hd] _ IH]; intros f Hf; [destruct f; reflexivity|]. cbn [length] in Hf.
  destruct f as [|f]; [lia|]. cbn [flat_map map]. apply dec_boxes_step; [exact Hs|exact Hd|apply IH; lia].
Qed.

Lemma run_lenN {A} typ (body : A -> list N) (size : A -> N) l :
  lenN typ = 4 -> Forall (fun x => 8 + lenN (body x) = size x) l ->
  lenN (flat_map (fun x => box typ (body x)) l) = sumN (map size l).
Proof.
  intros Ht. induction 1 as [|x l Hx _ IH]; [reflexivity|]. cbn [flat_map map sumN]. rewrite lenN_app, lenN_box, IH. lia.
Qed.

(* the children loop runs on as many units of fuel as there are bytes: enough for the boxes of a run *)
Lemma run_length {A} typ (body : A -> list N) l : (length l <= length (flat_map (fun x => box typ (body x)) l))%nat.
Proof. induction l as [|x l IH]; [apply le_n|]. cbn [flat_map length]. rewrite app_length, length_box. lia. Qed.

(* ------------------------------------------------------------------ sizes of the bodies *)
Lemma tfhd_body_len h : 8 + lenN (enc_tfhd_body h) = tfhd_size h.
Proof.
  unfold enc_tfhd_body, tfhd_size. rewrite !lenN_app, !lenN_be32.
  destruct (tf_has_bdo h), (tf_has_sdi h), (tf_has_ddur h), (tf_has_dsize h), (tf_has_dflags h); reflexivity.
Qed.

Lemma enc_tfhd_box h : enc_tfhd h = box T_TFHD (enc_tfhd_body h).
Proof. unfold enc_tfhd, box. rewrite tfhd_body_len. reflexivity. Qed.

Lemma enc_sample_len t s :
  lenN (enc_sample t s) = 4 * b2n (has_dur t) + 4 * b2n (has_size t) + 4 * b2n (has_sflags t) + 4 * b2n (has_cto t).
Proof.
  unfold enc_sample. rewrite !lenN_app.
  destruct (has_dur t), (has_size t), (has_sflags t), (has_cto t); reflexivity.
Qed.

Lemma flat_enc_sample_len t ss :
  lenN (flat_map (enc_sample t) ss) =
  lenN ss * (4 * b2n (has_dur t) + 4 * b2n (has_size t) + 4 * b2n (has_sflags t) + 4 * b2n (has_cto t)).
Proof.
  induction ss as [|s ss IH]; [reflexivity|]. cbn [flat_map]. rewrite lenN_app, enc_sample_len, IH, lenN_cons. lia.
Qed.

Lemma trun_body_len t : lenN (tr_samples t) < 4294967296 -> 8 + lenN (enc_trun_body t) = trun_size t.
Proof.
  intros H. unfold enc_trun_body, trun_size. rewrite !lenN_app, !lenN_be32, flat_enc_sample_len.
  rewrite u32_small' by exact H.
  generalize (lenN (tr_samples t) * (4 * b2n (has_dur t) + 4 * b2n (has_size t) + 4 * b2n (has_sflags t) + 4 * b2n (has_cto t))).
  intros k. destruct (has_doff t), (has_fsf t); cbn [b2n]; rewrite ?lenN_be32; change (lenN (@nil N)) with 0; lia.
Qed.

Lemma trun_size_body r : trun_wf r = true -> 8 + lenN (enc_trun_body r) = trun_size r.
Proof.
  intros Hw. apply trun_body_len. unfold trun_wf, trun_fields_wf in Hw. rewrite !andb_true_iff in Hw.
  destruct Hw as [[[_ Hl] _] _]. apply N.ltb_lt in Hl. exact Hl.
Qed.

(* ------------------------------------------------------------------ tfdt, mfhd *)
Definition tfdt_wf (d : tfdt) : bool :=
  ((td_version d =? 0) && (td_base d <? 4294967296)) || ((td_version d =? 1) && (td_base d <? 18446744073709551616)).

Lemma tfdt_wf_cases d : tfdt_wf d = true ->
  td_version d = 0 /\ td_base d < 4294967296 \/ td_version d = 1 /\ td_base d < 18446744073709551616.
Proof.
  unfold tfdt_wf. rewrite orb_true_iff, !andb_true_iff, !N.eqb_eq, !N.ltb_lt. intros H. exact H.
Qed.

Lemma set_base_wf t : t < 18446744073709551616 -> tfdt_wf (set_base t) = true.
Proof.
  intros H. unfold tfdt_wf, set_base. destruct (4294967296 <=? t) eqn:E; cbn [td_version td_base].
  - apply N.ltb_lt in H. rewrite H. reflexivity.
  - apply N.leb_gt in E. apply N.ltb_lt in E. rewrite E. reflexivity.
Qed.

Definition tfdt_body (d : tfdt) : list N :=
  be32 (u32 (td_version d * 16777216)) ++ (if td_version d =? 0 then be32 (u32 (td_base d)) else be64 (u64 (td_base d))).

Lemma tfdt_body_len d : tfdt_wf d = true -> 8 + lenN (tfdt_body d) = tfdt_size d.
Proof.
  intros H. unfold tfdt_body, tfdt_size. rewrite lenN_app, lenN_be32.
  destruct (tfdt_wf_cases d H) as [[Hv _]|[Hv _]]; rewrite Hv; reflexivity.
Qed.

Lemma enc_tfdt_box d : tfdt_wf d = true -> enc_tfdt d = box T_TFDT (tfdt_body d).
Proof. intros H. unfold enc_tfdt, box. rewrite (tfdt_body_len d H). reflexivity. Qed.

Lemma dec_tfdt_body d : tfdt_wf d = true -> dec_tfdt (tfdt_body d) = Ok d.
Proof.
  intros H. destruct d as [v t]. destruct (tfdt_wf_cases _ H) as [[Hv Ht]|[Hv Ht]]; cbn [td_version td_base] in Hv, Ht; subst v;
    unfold dec_tfdt, tfdt_body; cbn [td_version td_base].
  - change (0 =? 0) with true. cbn iota. change (u32 (0 * 16777216)) with 0. rewrite rd32_be32 by lia.
    change (0 / 16777216 =? 0) with true. cbn iota. rewrite u32_small' by exact Ht.
    rewrite <- (app_nil_r (be32 t)). rewrite rd32_be32 by exact Ht. reflexivity.
  - change (1 =? 0) with false. cbn iota. change (u32 (1 * 16777216)) with 16777216. rewrite rd32_be32 by lia.
    change (16777216 / 16777216 =? 0) with false. cbn iota. unfold u64. rewrite N.mod_small by exact Ht.
    rewrite <- (app_nil_r (be64 t)). rewrite rd64_be64 by exact Ht. reflexivity.
Qed.

Lemma enc_mfhd_box seq : enc_mfhd seq = box T_MFHD (be32 0 ++ be32 seq).
Proof. reflexivity. Qed.

Lemma dec_mfhd_body seq : seq < 4294967296 -> dec_mfhd (be32 0 ++ be32 seq) = Ok seq.
Proof.
  intros H. unfold dec_mfhd. rewrite rd32_be32 by lia. rewrite <- (app_nil_r (be32 seq)). rewrite rd32_be32 by exact H.
  reflexivity.
Qed.

(* ------------------------------------------------------------------ the children of a traf, each in its box *)
Lemma tfhd_size_wire h : tfhd_size (wire_tfhd h) = tfhd_size h.
Proof. reflexivity. Qed.

Lemma dec_child_tfhd h :
  tfhd_wf h = true -> dec_traf_child T_TFHD (tfhd_size h) (enc_tfhd_body h) = Ok (CTfhd (wire_tfhd h)).
Proof.
  intros H. change (rbind (dec_tfhd (enc_tfhd_body h))
                      (fun h' => if lenN (enc_tfhd_body h) + 8 =? tfhd_size h' then Ok (CTfhd h') else Err) = Ok (CTfhd (wire_tfhd h))).
  rewrite dec_enc_tfhd by exact H. cbn [rbind].
  rewrite tfhd_size_wire, N.add_comm, tfhd_body_len, N.eqb_refl. reflexivity.
Qed.

Lemma dec_child_tfdt d : tfdt_wf d = true -> dec_traf_child T_TFDT (tfdt_size d) (tfdt_body d) = Ok (CTfdt d).
Proof.
  intros H. change (rbind (dec_tfdt (tfdt_body d)) (fun d' => Ok (CTfdt d')) = Ok (CTfdt d)).
  rewrite dec_tfdt_body by exact H. reflexivity.
Qed.

Lemma dec_child_trun r :
  trun_wf r = true -> dec_traf_child T_TRUN (trun_size r) (enc_trun_body r) = Ok (CTrun (wire_trun r)).
Proof.
  intros H. change (rbind (dec_trun (trun_size r) (enc_trun_body r)) (fun r' => Ok (CTrun r')) = Ok (CTrun (wire_trun r))).
  rewrite dec_enc_trun by exact H. reflexivity.
Qed.

(* ------------------------------------------------------------------ truns of a traf *)
Lemma enc_trun_box r bytes :
  trun_wf r = true -> enc_trun r = Ok bytes -> bytes = box T_TRUN (enc_trun_body r).
Proof.
  intros Hw H. unfold enc_trun in H. destruct (doff_unset r); [discriminate|]. injection H as <-.
  unfold box. rewrite (trun_size_body r Hw). reflexivity.
Qed.

Definition trun_boxes (rs : list trun) : list N := flat_map (fun r => box T_TRUN (enc_trun_body r)) rs.

Lemma enc_truns_boxes rs : forall trb, forallb trun_wf rs = true -> enc_truns rs = Ok trb -> trb = trun_boxes rs.
Proof.
  induction rs as [|r rs IH]; intros trb Hw He; cbn [enc_truns] in He; [injection He as <-; reflexivity|].
  cbn [forallb] in Hw. apply andb_true_iff in Hw. destruct Hw as [Hr Hrs].
  destruct (enc_trun r) as [a| | |] eqn:Ea; try discriminate. cbn [rbind] in He.
  destruct (enc_truns rs) as [b| | |]; try discriminate. cbn [rbind] in He. injection He as <-.
  rewrite (enc_trun_box r a Hr Ea), (IH b Hrs eq_refl). reflexivity.
Qed.

Lemma enc_truns_len rs : forallb trun_wf rs = true -> lenN (trun_boxes rs) = sumN (map trun_size rs).
Proof.
  intros Hw. apply run_lenN; [reflexivity|]. apply Forall_forall. intros r Hr. apply trun_size_body.
  rewrite forallb_forall in Hw. exact (Hw r Hr).
Qed.

Lemma dec_truns rs f :
  forallb trun_wf rs = true -> Forall (fun r => trun_size r < 4294967296) rs -> (length rs <= f)%nat ->
  dec_boxes f dec_traf_child (trun_boxes rs) = Ok (map CTrun (map wire_trun rs)).
Proof.
  intros Hw Hs Hf. rewrite map_map.
  apply (dec_boxes_run dec_traf_child 116 114 117 110 enc_trun_body (fun r => CTrun (wire_trun r))); [|exact Hf].
  apply Forall_forall. intros r Hr. rewrite forallb_forall in Hw. rewrite Forall_forall in Hs.
  rewrite (trun_size_body r (Hw r Hr)). split; [exact (Hs r Hr)|exact (dec_child_trun r (Hw r Hr))].
Qed.

Lemma fold_truns l : forall acc,
  fold_left traf_add (map CTrun l) acc = mkDtraf (dt_hd acc) (dt_dt acc) (dt_truns acc ++ l) (dt_extra acc).
Proof.
  induction l as [|r l IH]; intros acc; cbn [map fold_left].
  - rewrite app_nil_r. destruct acc; reflexivity.
  - rewrite IH. cbn [traf_add dt_hd dt_dt dt_truns dt_extra]. rewrite <- app_assoc. reflexivity.
Qed.

(* ------------------------------------------------------------------ traf *)
Definition traf_wf (t : traf) : bool :=
  tfhd_wf (tf_hd t) && tfdt_wf (tf_dt t) && forallb trun_wf (tf_truns t) && (tf_extra t =? 0).

(* what DecodeTraf holds for an encoded traf *)
Definition wire_dtraf (t : traf) : dtraf :=
  mkDtraf (Some (wire_tfhd (tf_hd t))) (Some (tf_dt t)) (map wire_trun (tf_truns t)) 0.

Lemma sumN_in (x : N) l : In x l -> x <= sumN l.
Proof. induction l as [|y l IH]; [contradiction|]. cbn [sumN]. intros [->|H]; [lia|]. specialize (IH H). lia. Qed.

Lemma trun_size_le_traf t r : In r (tf_truns t) -> trun_size r <= traf_size t.
Proof. intros H. pose proof (sumN_in _ _ (in_map trun_size _ _ H)). unfold traf_size. lia. Qed.

Definition traf_body (t : traf) (trb : list N) : list N := enc_tfhd (tf_hd t) ++ enc_tfdt (tf_dt t) ++ trb.

Lemma traf_body_len t : traf_wf t = true -> 8 + lenN (traf_body t (trun_boxes (tf_truns t))) = traf_size t.
Proof.
  unfold traf_wf. rewrite !andb_true_iff. intros [[[_ Hd] Hr] Hx]. apply N.eqb_eq in Hx.
  unfold traf_body, traf_size. rewrite !lenN_app, (enc_truns_len _ Hr), Hx.
  rewrite enc_tfhd_box, (enc_tfdt_box _ Hd), !lenN_box.
  pose proof (tfhd_body_len (tf_hd t)). pose proof (tfdt_body_len _ Hd).
  change (lenN T_TFHD) with 4. change (lenN T_TFDT) with 4. lia.
Qed.

Lemma dec_traf_body t :
  traf_wf t = true -> traf_size t < 4294967296 -> dec_traf (traf_body t (trun_boxes (tf_truns t))) = Ok (wire_dtraf t).
Proof.
  unfold traf_wf. rewrite !andb_true_iff. intros [[[Hh Hd] Hr] _] Hs.
  assert (Hsz : Forall (fun r => trun_size r < 4294967296) (tf_truns t)).
  { apply Forall_forall. intros r Hin. pose proof (trun_size_le_traf t r Hin). lia. }
  pose proof (tfhd_body_len (tf_hd t)) as L1. pose proof (tfdt_body_len _ Hd) as L2.
  assert (Hle : tfhd_size (tf_hd t) + tfdt_size (tf_dt t) <= traf_size t) by (unfold traf_size; lia).
  unfold dec_traf, traf_body. rewrite enc_tfhd_box, (enc_tfdt_box _ Hd).
  assert (Hn : (length (tf_truns t) <= length (trun_boxes (tf_truns t)))%nat) by apply run_length.
  destruct (length (box T_TFHD _ ++ box T_TFDT _ ++ trun_boxes _)) as [|[|f]] eqn:Ef;
    rewrite !app_length, !length_box in Ef; try lia.
  unfold T_TFHD at 1.
  rewrite (dec_boxes_step dec_traf_child (S f) 116 102 104 100 (enc_tfhd_body (tf_hd t)) _
             (CTfhd (wire_tfhd (tf_hd t))) (CTfdt (tf_dt t) :: map CTrun (map wire_trun (tf_truns t)))).
  - cbn [rbind fold_left traf_add dt_hd dt_dt dt_truns dt_extra]. rewrite fold_truns. reflexivity.
  - lia.
  - rewrite L1. apply dec_child_tfhd. exact Hh.
  - unfold T_TFDT. apply dec_boxes_step; [lia|rewrite L2; apply dec_child_tfdt; exact Hd|].
    apply dec_truns; [exact Hr|exact Hsz|lia].
Qed.

(* ------------------------------------------------------------------ moof *)
Lemma enc_traf_box t bytes :
  traf_wf t = true -> enc_traf t = Ok bytes -> bytes = box T_TRAF (traf_body t (trun_boxes (tf_truns t))).
Proof.
  intros Hw H. unfold enc_traf in H. destruct (enc_truns (tf_truns t)) as [trb| | |] eqn:E; try discriminate.
  cbn [rbind] in H. injection H as <-. unfold box. rewrite <- (traf_body_len t Hw).
  unfold traf_wf in Hw. rewrite !andb_true_iff in Hw. destruct Hw as [[_ Hr] _].
  rewrite (enc_truns_boxes _ trb Hr E). reflexivity.
Qed.

Definition traf_boxes (ts : list traf) : list N :=
  flat_map (fun t => box T_TRAF (traf_body t (trun_boxes (tf_truns t)))) ts.

Lemma enc_trafs_boxes ts : forall tsb, forallb traf_wf ts = true -> enc_trafs ts = Ok tsb -> tsb = traf_boxes ts.
Proof.
  induction ts as [|t ts IH]; intros tsb Hw He; cbn [enc_trafs] in He; [injection He as <-; reflexivity|].
  cbn [forallb] in Hw. apply andb_true_iff in Hw. destruct Hw as [Ht Hts].
  destruct (enc_traf t) as [a| | |] eqn:Ea; try discriminate. cbn [rbind] in He.
  destruct (enc_trafs ts) as [b| | |]; try discriminate. cbn [rbind] in He. injection He as <-.
  rewrite (enc_traf_box t a Ht Ea), (IH b Hts eq_refl). reflexivity.
Qed.

Lemma enc_trafs_len ts : forallb traf_wf ts = true -> lenN (traf_boxes ts) = sumN (map traf_size ts).
Proof.
  intros Hw. apply run_lenN; [reflexivity|]. apply Forall_forall. intros t Ht. apply traf_body_len.
  rewrite forallb_forall in Hw. exact (Hw t Ht).
Qed.

Lemma dec_moof_child_traf t :
  traf_wf t = true -> traf_size t < 4294967296 ->
  dec_moof_child T_TRAF (traf_size t) (traf_body t (trun_boxes (tf_truns t))) = Ok (CTraf (wire_dtraf t)).
Proof.
  intros Hw Hs. change (rbind (dec_traf (traf_body t (trun_boxes (tf_truns t)))) (fun t' => Ok (CTraf t')) = Ok (CTraf (wire_dtraf t))).
  rewrite (dec_traf_body t Hw Hs). reflexivity.
Qed.

Lemma dec_trafs ts f :
  forallb traf_wf ts = true -> Forall (fun t => traf_size t < 4294967296) ts -> (length ts <= f)%nat ->
  dec_boxes f dec_moof_child (traf_boxes ts) = Ok (map CTraf (map wire_dtraf ts)).
Proof.
  intros Hw Hs Hf. rewrite map_map.
  apply (dec_boxes_run dec_moof_child 116 114 97 102 (fun t => traf_body t (trun_boxes (tf_truns t)))
           (fun t => CTraf (wire_dtraf t))); [|exact Hf].
  apply Forall_forall. intros t Ht. rewrite forallb_forall in Hw. rewrite Forall_forall in Hs.
  rewrite (traf_body_len t (Hw t Ht)). split; [exact (Hs t Ht)|exact (dec_moof_child_traf t (Hw t Ht) (Hs t Ht))].
Qed.

Lemma fold_trafs l : forall acc,
  fold_left moof_add (map CTraf l) acc = mkDmoof (dm_seq acc) (dm_trafs acc ++ l) (dm_extra acc).
Proof.
  induction l as [|t l IH]; intros acc; cbn [map fold_left].
  - rewrite app_nil_r. destruct acc; reflexivity.
  - rewrite IH. cbn [moof_add dm_seq dm_trafs dm_extra]. rewrite <- app_assoc. reflexivity.
Qed.

(* an encoded fragment whose moof has no extra children and whose fields fit their wire widths *)
Definition frag_codec_wf (fe : frag) : bool :=
  forallb traf_wf (fr_trafs fe) && (fr_moofx fe =? 0) && (moof_size fe <? 4294967296).

Definition wire_dmoof (seq : N) (fe : frag) : dmoof := mkDmoof (Some seq) (map wire_dtraf (fr_trafs fe)) 0.

Lemma traf_size_le_moof fe t : In t (fr_trafs fe) -> traf_size t <= moof_size fe.
Proof. intros H. pose proof (sumN_in _ _ (in_map traf_size _ _ H)). unfold moof_size. lia. Qed.

Definition moof_body (seq : N) (tsb : list N) : list N := enc_mfhd seq ++ tsb.

Lemma dec_moof_body seq fe :
  frag_codec_wf fe = true -> seq < 4294967296 ->
  dec_moof (moof_body seq (traf_boxes (fr_trafs fe))) = Ok (wire_dmoof seq fe) /\
  8 + lenN (moof_body seq (traf_boxes (fr_trafs fe))) = moof_size fe.
Proof.
  unfold frag_codec_wf. rewrite !andb_true_iff. intros [[Hw Hx] Hs] Hq.
  apply N.eqb_eq in Hx. apply N.ltb_lt in Hs.
  assert (Hlen : 8 + lenN (moof_body seq (traf_boxes (fr_trafs fe))) = moof_size fe).
  { unfold moof_body, moof_size. rewrite lenN_app, (enc_trafs_len _ Hw), Hx. change (lenN (enc_mfhd seq)) with 16. lia. }
  split; [|exact Hlen].
  assert (Hsz : Forall (fun t => traf_size t < 4294967296) (fr_trafs fe)).
  { apply Forall_forall. intros t Hin. pose proof (traf_size_le_moof fe t Hin). lia. }
  unfold dec_moof, moof_body. rewrite enc_mfhd_box.
  assert (Hn : (length (fr_trafs fe) <= length (traf_boxes (fr_trafs fe)))%nat) by apply run_length.
  destruct (length (box T_MFHD _ ++ traf_boxes _)) as [|f] eqn:Ef; rewrite app_length, length_box in Ef; try lia.
  unfold T_MFHD.
  rewrite (dec_boxes_step dec_moof_child f 109 102 104 100 (be32 0 ++ be32 seq) _ (CMfhd seq)
             (map CTraf (map wire_dtraf (fr_trafs fe)))).
  - cbn [rbind fold_left moof_add dm_seq dm_trafs dm_extra]. rewrite fold_trafs. reflexivity.
  - change (lenN (be32 0 ++ be32 seq)) with 8. lia.
  - change (rbind (dec_mfhd (be32 0 ++ be32 seq)) (fun s => Ok (CMfhd s)) = Ok (CMfhd seq)).
    rewrite dec_mfhd_body by exact Hq. reflexivity.
  - apply dec_trafs; [exact Hw|exact Hsz|lia].
Qed.

(* ------------------------------------------------------------------ the whole fragment: moof + mdat *)
Definition mdat_wf (m : mdat) : bool :=
  (md_payload m =? lenN (md_written m)) && (md_large m || (md_payload m <=? 4294967287))
  && (md_payload m <? 18446744073709551600).

Lemma dec_top_S f l :
  l <> [] ->
  dec_top (S f) l = (do nb <- next_box l;
                     let '(typ, size, hl, body, rest) := nb in
                     do b <- dec_top_box typ size hl body; do bs <- dec_top f rest; Ok (b :: bs)).
Proof. destruct l; [congruence|reflexivity]. Qed.

Lemma dec_top_nil f : dec_top f [] = Ok [].
Proof. destruct f; reflexivity. Qed.

(* one step of the top-level loop *)
Lemma dec_top_next f l typ size hl body rest b bs :
  next_box l = Ok (typ, size, hl, body, rest) -> dec_top_box typ size hl body = Ok b -> dec_top f rest = Ok bs ->
  dec_top (S f) l = Ok (b :: bs).
Proof.
  intros Hn H1 H2. rewrite dec_top_S by (intros ->; discriminate Hn). rewrite Hn. cbn [rbind]. rewrite H1. cbn [rbind].
  rewrite H2. reflexivity.
Qed.

(* the mdat box, with the 8-byte or the 16-byte header *)
Lemma next_box_mdat m rest :
  mdat_wf m = true ->
  next_box (enc_mdat m ++ rest) =
    Ok (T_MDAT, md_header_size m + lenN (md_written m), md_header_size m, md_written m, rest).
Proof.
  unfold mdat_wf. rewrite !andb_true_iff. intros [[Hp Hlg] Hb]. apply N.eqb_eq in Hp. apply N.ltb_lt in Hb.
  unfold enc_mdat, enc_mdat_header, md_header_size. rewrite Hp in Hlg, Hb |- *. destruct (md_large m).
  - unfold u64. rewrite N.mod_small by lia. rewrite <- !app_assoc. apply next_box_large. lia.
  - apply N.leb_le in Hlg. unfold u32. rewrite N.mod_small by lia. rewrite <- (app_assoc (be32 _)).
    apply (next_box_box 109 100 97 116). lia.
Qed.

Lemma dec_top_mdat m f :
  mdat_wf m = true -> dec_top (S f) (enc_mdat m) = Ok [BMdat (md_header_size m) (md_written m)].
Proof.
  intros Hm. rewrite <- (app_nil_r (enc_mdat m)).
  eapply dec_top_next; [apply next_box_mdat; exact Hm|reflexivity|apply dec_top_nil].
Qed.

Lemma dec_enc_fragment seq fe bytes :
  frag_codec_wf fe = true -> seq < 4294967296 -> mdat_wf (fr_mdat fe) = true ->
  enc_fragment seq fe = Ok bytes ->
  dec_top (length bytes) bytes =
    Ok [BMoof (moof_size fe) (wire_dmoof seq fe); BMdat (md_header_size (fr_mdat fe)) (md_written (fr_mdat fe))].
Proof.
  intros Hw Hq Hm H. destruct (dec_moof_body seq fe Hw Hq) as (Hd & Hl).
  unfold frag_codec_wf in Hw. rewrite !andb_true_iff in Hw. destruct Hw as [[Hts _] Hs]. apply N.ltb_lt in Hs.
  assert (Hb : bytes = box [109; 111; 111; 102] (moof_body seq (traf_boxes (fr_trafs fe))) ++ enc_mdat (fr_mdat fe)).
  { unfold enc_fragment, enc_moof in H. destruct (enc_trafs (fr_trafs fe)) as [tsb| | |] eqn:Et; try discriminate.
    cbn [rbind] in H. injection H as <-. rewrite (enc_trafs_boxes _ tsb Hts Et). unfold box. rewrite Hl. reflexivity. }
  rewrite Hb, <- Hl.
  destruct (length (box _ _ ++ enc_mdat _)) as [|[|f]] eqn:Ef.
  1, 2: rewrite app_length, length_box in Ef; unfold enc_mdat, enc_mdat_header in Ef; rewrite app_length in Ef;
        destruct (md_large (fr_mdat fe)); cbn in Ef; lia.
  eapply dec_top_next; [apply (next_box_box 109 111 111 102); lia| |apply dec_top_mdat; exact Hm].
  change (rbind (dec_moof (moof_body seq (traf_boxes (fr_trafs fe)))) (fun m => Ok (BMoof (8 + lenN (moof_body seq (traf_boxes (fr_trafs fe)))) m))
          = Ok (BMoof (8 + lenN (moof_body seq (traf_boxes (fr_trafs fe)))) (wire_dmoof seq fe))).
  rewrite Hd. reflexivity.
Qed.

(* ------------------------------------------------------------------ the decoded bytes and the view of the round-trip theorems *)
(* GetFullSamples reads tfhd fields only behind their presence flags *)
Lemma ffs_ext h h' tx d d' : forall truns base,
  defaults h tx = defaults h' tx -> tf_has_bdo h = tf_has_bdo h' -> (tf_has_bdo h = true -> tf_bdo h = tf_bdo h') ->
  df_data d = df_data d' -> df_moof_start d = df_moof_start d' -> df_payload_abs d = df_payload_abs d' ->
  frag_full_samples h tx truns base d = frag_full_samples h' tx truns base d'.
Proof.
  intros truns base Hd Hb Hbv E1 E2 E3. revert base.
  induction truns as [|r rest IH]; intros base; cbn [frag_full_samples]; [reflexivity|].
  unfold resolve. rewrite <- Hd, <- Hb, <- E1, <- E2, <- E3.
  assert (Hbo : (if tf_has_bdo h then tf_bdo h else df_moof_start d) = (if tf_has_bdo h then tf_bdo h' else df_moof_start d)).
  { destruct (tf_has_bdo h) eqn:E; [apply Hbv; reflexivity|reflexivity]. }
  rewrite <- Hbo. rewrite IH. reflexivity.
Qed.

Lemma defaults_wire h tx : defaults (wire_tfhd h) tx = defaults h tx.
Proof.
  unfold defaults, wire_tfhd, tf_has_ddur, tf_has_dsize, tf_has_dflags. cbn [tf_flags tf_ddur tf_dsize tf_dflags].
  fold (tf_has_ddur h). fold (tf_has_dsize h). fold (tf_has_dflags h).
  destruct (tf_has_ddur h), (tf_has_dsize h), (tf_has_dflags h); reflexivity.
Qed.

(* the fragment view built from the decoded boxes: moof at position pos *)
Definition bytes_view (m : dmoof) (payload : list N) (pos moof_sz hdr : N) : option dfrag :=
  match to_trafs (dm_trafs m) with
  | Some ts => Some (mkDfrag ts payload pos (pos + moof_sz + hdr))
  | None => None
  end.

Definition wire_hd_traf (t : traf) : traf :=
  mkTraf (wire_tfhd (tf_hd t)) (tf_dt t) (map wire_trun (tf_truns t)) 0.

Lemma to_trafs_wire ts : to_trafs (map wire_dtraf ts) = Some (map wire_hd_traf ts).
Proof. induction ts as [|t ts IH]; [reflexivity|]. cbn [map to_trafs]. rewrite IH. reflexivity. Qed.

Lemma find_wire_hd p ts :
  find (fun t => tf_track (tf_hd t) =? p) (map wire_hd_traf ts) =
  option_map wire_hd_traf (find (fun t => tf_track (tf_hd t) =? p) ts).
Proof.
  induction ts as [|t ts IH]; [reflexivity|]. cbn [map find]. cbn [wire_hd_traf tf_hd wire_tfhd tf_track].
  destruct (tf_track (tf_hd t) =? p); [reflexivity|exact IH].
Qed.

(* reading the view decoded from the bytes = reading decoded_view (fragment without boxes before the moof) *)
Lemma bytes_view_read seq fe pos tx :
  fr_pre fe = 0 -> md_lazy (fr_mdat fe) = 0 ->
  exists d, bytes_view (wire_dmoof seq fe) (md_written (fr_mdat fe)) pos (moof_size fe) (md_header_size (fr_mdat fe)) = Some d /\
            get_full_samples d tx = get_full_samples (decoded_view fe pos []) tx.
Proof.
  intros Hpre Hlz. unfold bytes_view, wire_dmoof. cbn [dm_trafs]. rewrite to_trafs_wire. eexists. split; [reflexivity|].
  unfold get_full_samples, decoded_view. cbn [df_trafs]. rewrite Hpre, Hlz. change (0 <? 0) with false. cbn iota.
  rewrite N.add_0_r.
  set (d1 := mkDfrag (map wire_hd_traf (fr_trafs fe)) _ _ _). set (d2 := mkDfrag _ _ _ _).
  assert (G : forall t, frag_full_samples (tf_hd (wire_hd_traf t)) tx (tf_truns (wire_hd_traf t)) (td_base (tf_dt (wire_hd_traf t))) d1 =
                        frag_full_samples (tf_hd t) tx (map wire_trun (tf_truns t)) (td_base (tf_dt t)) d2).
  { intros t. cbn [wire_hd_traf tf_hd tf_truns tf_dt]. apply ffs_ext; try reflexivity.
    - apply defaults_wire.
    - intros Hb. change (tf_has_bdo (wire_tfhd (tf_hd t))) with (tf_has_bdo (tf_hd t)) in Hb.
      unfold wire_tfhd. cbn [tf_bdo]. rewrite Hb. reflexivity. }
  destruct tx as [x|].
  - rewrite find_wire_hd. rewrite (C05RoundProofs.find_map (fun t => tf_track (tf_hd t) =? tx_track x)
                                     (fun t => mkTraf (tf_hd t) (tf_dt t) (map wire_trun (tf_truns t)) (tf_extra t))).
    cbn [tf_hd]. destruct (find (fun a => tf_track (tf_hd a) =? tx_track x) (fr_trafs fe)) as [t|]; cbn [option_map rbind]; [|reflexivity].
    rewrite G. reflexivity.
  - destruct (fr_trafs fe) as [|t ts]; cbn [map rbind]; [reflexivity|]. rewrite G. reflexivity.
Qed.

(* ------------------------------------------------------------------ DecodeTrun's count guard holds for what Encode writes *)
(* widths only: what the caller controls (field values within their wire widths, no extra children) *)
Definition traf_width_wf (t : traf) : bool :=
  tfhd_wf (tf_hd t) && tfdt_wf (tf_dt t) && forallb trun_fields_wf (tf_truns t) && (tf_extra t =? 0).
Definition frag_width_wf (fe : frag) : bool :=
  forallb traf_width_wf (fr_trafs fe) && (fr_moofx fe =? 0) && (moof_size fe <? 4294967296).

Definition trafs_bare (ts : list traf) : Prop := Forall (fun t => Forall (fun r => bare_ok r = true) (tf_truns t)) ts.

Lemma present_bare r : all_present r = true -> has_cto r = true /\ bare_ok r = true.
Proof.
  unfold all_present, bare_ok. rewrite !andb_true_iff. intros [[[_ _] _] H]. split; [exact H|]. rewrite H. apply orb_true_r.
Qed.

Lemma traf_wf_of_width t :
  traf_width_wf t = true -> Forall (fun r => bare_ok r = true) (tf_truns t) -> traf_wf t = true.
Proof.
  unfold traf_width_wf, traf_wf. rewrite !andb_true_iff, !forallb_forall, Forall_forall. intros [[[H1 H2] H3] H4] Hb.
  split; [split; [split|]|]; try assumption. intros r Hr. apply trun_wf_of_bare; [apply H3|apply Hb]; exact Hr.
Qed.

Lemma frag_codec_of_width fe : frag_width_wf fe = true -> trafs_bare (fr_trafs fe) -> frag_codec_wf fe = true.
Proof.
  unfold frag_width_wf, frag_codec_wf, trafs_bare. rewrite !andb_true_iff, !forallb_forall, Forall_forall. intros [[Hw Hx] Hs] Hb.
  split; [split|]; try assumption. intros t Ht. apply traf_wf_of_width; [apply Hw|apply Hb]; exact Ht.
Qed.

Lemma set_offsets_bare fr : trafs_bare (fr_trafs fr) -> trafs_bare (fr_trafs (set_offsets fr)).
Proof.
  intros H. unfold set_offsets. destruct (negb _ && _); [exact H|]. cbn [fr_with fr_trafs]. unfold trafs_bare in *.
  rewrite Forall_map. eapply Forall_impl; [|exact H]. cbn beta. intros t Ht. cbn [tf_truns]. rewrite Forall_map. exact Ht.
Qed.

(* every trun of a fragment whose truns carry all four fields (as CreateTrun makes them) passes the guard after
   Fragment.Encode, with or without optimisation, whatever the number of samples (fix 6c7a902) *)
Lemma encode_frag_bare opt fr fe :
  Forall (fun t => Forall (fun r => all_present r = true) (tf_truns t)) (fr_trafs fr) ->
  encode_frag opt fr = Ok fe -> trafs_bare (fr_trafs fe).
Proof.
  intros Hp H. destruct (encode_frag_inv _ _ _ H) as (fr1 & E1 & ->). apply set_offsets_bare.
  assert (H0 : trafs_bare (fr_trafs fr)).
  { eapply Forall_impl; [|exact Hp]. cbn beta. intros t Ht. eapply Forall_impl; [|exact Ht]. intros r Hr. apply (present_bare r Hr). }
  destruct opt; [|injection E1 as <-; exact H0].
  destruct (optimize_first_inv _ _ E1) as [->|(t & ts & r & rs & h' & r' & Et & Er & Eo & ->)]; [exact H0|].
  (* only the first trun of the first traf has changed *)
  cbn [fr_with fr_trafs]. unfold trafs_bare in H0. rewrite Et in H0, Hp.
  apply Forall_cons_iff in H0. destruct H0 as [Hb Hts]. apply Forall_cons_iff in Hp. destruct Hp as [Hpt _].
  rewrite Er in Hb, Hpt. apply Forall_cons_iff in Hb. destruct Hb as [Hb Hbs]. apply Forall_cons_iff in Hpt. destruct Hpt as [Hpr _].
  constructor; [|exact Hts]. cbn [tf_truns]. constructor; [|exact Hbs].
  destruct (present_bare r Hpr) as [Hc _]. exact (optimize_bare _ _ _ _ Hc Hb Eo).
Qed.

(* ------------------------------------------------------------------ end to end on the bytes of one fragment *)
(* Fragment.Encode has called mdat.Size(), which marks a payload beyond the 32-bit size field as large *)
Lemma encode_frag_touched opt fr fe : encode_frag opt fr = Ok fe ->
  md_large (fr_mdat fe) || (md_payload (fr_mdat fe) <=? 4294967287) = true.
Proof.
  intros H. destruct (encode_frag_inv _ _ _ H) as (fr1 & _ & ->). unfold touch. cbn [fr_with fr_mdat].
  set (m := fr_mdat (set_offsets fr1)). unfold md_size_touch. cbn [md_large].
  change (md_payload (mkMdat (md_data m) (md_parts m) (md_lazy m) _)) with (md_payload m).
  destruct (md_large m); [reflexivity|]. cbn [orb].
  destruct (N.ltb_spec 4294967287 (md_payload m)) as [_|E]; [reflexivity|]. apply N.leb_le. exact E.
Qed.

(* C05_roundtrip on the real byte string: a multi-track fragment without boxes before the moof and without extra
   children in moof and trafs, any history of AddFullSampleToTrack; Fragment.Encode writes `bytes`; decoding the
   bytes at any position gives a moof and an mdat whose view reads back exactly the added samples.  No bound on the
   number of samples per trun: DecodeTrun's count guard is PROVED to accept every trun Encode writes here. *)
Lemma roundtrip_bytes tracks post ops cs fr opt fe seq bytes pos0 tx :
  NoDup tracks -> N.of_nat (length ops) < 4294967296 -> forallb is_full_to ops = true ->
  Forall (fun o => sized_f (op_full o)) ops ->
  run_ops (with_extras (create_multi tracks) 0 0 post []) ops = (cs, Some fr) ->
  encode_frag opt fr = Ok fe ->
  moof_size fe + md_header_size (fr_mdat fe) + lenN (md_data (fr_mdat fr)) < 2147483648 ->
  pos0 < 4611686018427387904 ->
  consistent (added_fulls tracks (tx_track tx) ops) ->
  frag_width_wf fe = true -> seq < 4294967296 ->
  enc_fragment seq fe = Ok bytes ->
  exists m payload d,
    dec_top (length bytes) bytes = Ok [BMoof (moof_size fe) m; BMdat (md_header_size (fr_mdat fe)) payload] /\
    bytes_view m payload pos0 (moof_size fe) (md_header_size (fr_mdat fe)) = Some d /\
    get_full_samples d (Some tx) = Ok (added_fulls tracks (tx_track tx) ops).
Proof.
  intros Hnd Hlen Hfull Hsz Hrun Henc Hg Hpos Hcons Hww Hq Hb.
  pose proof (ghost_ginv tracks ops cs _ fr Hnd Hlen Hfull (create_multi_extras_ginv _ _ _ _ _ Hnd) Hrun) as Hi.
  assert (Hw : frag_codec_wf fe = true).
  { apply frag_codec_of_width; [exact Hww|]. eapply encode_frag_bare; [|exact Henc]. eapply ginv_present. exact Hi. }
  destruct Hi as (_ & _ & _ & _ & Hdat & Hpar & Hlaz).
  destruct (encode_frag_mdat opt fr fe Henc) as (El & Ed & Ep).
  destruct (encode_frag_frame opt fr fe Henc) as (Epre & _).
  destruct (run_ops_frame _ _ _ _ Hrun) as ((Rpre & _) & _).
  assert (Hpre0 : fr_pre fe = 0) by (rewrite Epre, Rpre; reflexivity).
  assert (Hlz0 : md_lazy (fr_mdat fe) = 0) by (rewrite El; exact Hlaz).
  assert (Hmw : mdat_wf (fr_mdat fe) = true).
  { unfold mdat_wf. rewrite (encode_frag_touched opt fr fe Henc), andb_true_r.
    assert (Hpay : md_payload (fr_mdat fe) = lenN (md_written (fr_mdat fe)) /\ md_payload (fr_mdat fe) = lenN (md_data (fr_mdat fr))).
    { unfold md_payload, md_written, md_data_length. rewrite Hlz0, Ep, Hpar, Ed. cbn. split; reflexivity. }
    destruct Hpay as [P1 P2]. apply andb_true_iff. split; [apply N.eqb_eq; exact P1|apply N.ltb_lt; lia]. }
  destruct (bytes_view_read seq fe pos0 (Some tx) Hpre0 Hlz0) as (d & Ev & Er).
  exists (wire_dmoof seq fe), (md_written (fr_mdat fe)), d.
  split; [apply dec_enc_fragment; assumption|]. split; [exact Ev|].
  rewrite Er.
  apply (roundtrip_multi_ops tracks ops cs (with_extras (create_multi tracks) 0 0 post []) fr fr [] opt fe pos0 (Some tx) (tx_track tx));
    try assumption; try reflexivity; [apply create_multi_extras_ginv; exact Hnd|rewrite Hpre0; lia].
Qed.

(* ------------------------------------------------------------------ the optimiser and DecodeTrun's guard (C05-F7) *)
(* after fix 6c7a902: whatever OptimizeTfhdTrun makes of a trun that carries all four per-sample fields, DecodeTrun /
   DecodeTrunSR decode its bytes, for ANY number of samples (fields within their wire widths) *)
Lemma optimized_trun_decodes tf tr tf' tr' d :
  all_present tr = true -> optimize tf tr = Ok (tf', tr') -> trun_fields_wf (tr_with_doff tr' d) = true ->
  dec_trun (trun_size (tr_with_doff tr' d)) (enc_trun_body (tr_with_doff tr' d)) = Ok (wire_trun (tr_with_doff tr' d)).
Proof.
  intros Hp Ho Hw. apply dec_enc_trun. apply trun_wf_of_bare; [exact Hw|].
  destruct (present_bare tr Hp) as [Hc Hb]. exact (optimize_bare _ _ _ _ Hc Hb Ho).
Qed.

(* before the fix (optimize_f7): 1025 samples with equal duration, size and flags and zero composition offsets lost all
   four per-sample fields, and DecodeTrun / DecodeTrunSR refuse a trun with more than 1024 samples and no per-sample
   field ("sampleCount is big but no sample data present").  Reproduced on the pinned code: finding C05-F7 (fixed). *)
Lemma big_uniform_refuted : exists tf tr tf' tr',
  all_present tr = true /\ forallb sample_wf (tr_samples tr) = true /\
  optimize_f7 tf tr = Ok (tf', tr') /\
  dec_trun (trun_size (tr_with_doff tr' 100)) (enc_trun_body (tr_with_doff tr' 100)) = Err.
Proof.
  exists (create_tfhd 1), (mkTrun 1 3841 0 0 (repeat (mkSample 16842752 10 1 0) 1025) 0),
         (mkTfhd 131128 1 0 1 10 1 16842752), (mkTrun 1 1 0 0 (repeat (mkSample 16842752 10 1 0) 1025) 0).
  repeat apply conj; vm_compute; reflexivity.
Qed.

Lemma tfdt_codec t :
  t < 18446744073709551616 -> dec_tfdt (tfdt_body (set_base t)) = Ok (set_base t) /\
                              enc_tfdt (set_base t) = box T_TFDT (tfdt_body (set_base t)).
Proof. intros H. split; [apply dec_tfdt_body|apply enc_tfdt_box]; apply set_base_wf; exact H. Qed.
