(* C05SegProofs.v — decoding the box stream of a media segment regroups it into exactly the encoded fragments,
   each seen at the position where its moof starts (decoded_view fe pos lz); reading a track back fragment by
   fragment is then the concatenation of the per-fragment results, for ANY positions: the per-fragment round
   trip theorems hold for every pos0, which is what makes the fragments independent. *)
From V.lib Require Import Base.
From V.c05 Require Import C05Model C05FragModel C05OptProofs C05HistProofs C05OffProofs C05GhostProofs
  C05ReadProofs C05RoundProofs C05LazyProofs C05LazyRoundProofs C05SingleProofs C05SegModel.

(* ------------------------------------------------------------------ states of the decoder *)
Definition S0 (b : bool) : fstate := mkFstate b [] [] None.
Definition S1 (s : bool) (frs : list dfr) : fstate := mkFstate true [] [mkDseg s frs] None.

(* at a fragment boundary: `done` are the fragments decoded so far, in order *)
Definition bnd (done : list dfr) (st : fstate) : Prop :=
  (done = [] /\ exists b, st = S0 b) \/ (exists s, st = S1 s (rev done)).

(* while the boxes before a moof are read: an emsg may have opened the first fragment of the segment *)
Definition pre_state (done : list dfr) (st : fstate) : Prop :=
  bnd done st \/ (done = [] /\ exists s, st = S1 s [mkDfr None None]).

Definition moofed (l : list dfr) : Prop := Forall (fun f => dr_moof f <> None) l.

Lemma file_frags_bnd done st : bnd done st -> file_frags st = done.
Proof.
  intros [[-> [b ->]]|[s ->]]; unfold file_frags, S0, S1; cbn [fs_segs rev flat_map app dg_frags]; [reflexivity|].
  rewrite app_nil_r. apply rev_involutive.
Qed.

Lemma start_S1 s frs pos : start_if_needed (S1 s frs) pos = S1 s frs.
Proof. reflexivity. Qed.

(* one emsg / ignored box *)
Lemma add_inner done st pos x lm :
  pre_state done st -> inner_kind x = true ->
  exists st1, add_box st pos (TX x) lm = Ok st1 /\ pre_state done st1.
Proof.
  intros Hst Hk. unfold inner_kind in Hk. cbn [add_box]. destruct (x_kind x) eqn:Ek; try discriminate.
  - (* emsg *)
    destruct Hst as [[[-> [b ->]]|[s ->]]|[-> [s ->]]].
    + eexists. split; [reflexivity|]. right. split; [reflexivity|]. exists false. reflexivity.
    + rewrite start_S1. unfold upd_last_seg, S1. cbn [fs_segs fs_fragmented fs_sidxs fs_mdat dg_frags dg_styp].
      destruct (rev done) as [|f l] eqn:Er.
      * eexists. split; [reflexivity|]. right. split; [|exists s; reflexivity].
        destruct done as [|d dl]; [reflexivity|]. cbn [rev] in Er. destruct (rev dl); discriminate.
      * eexists. split; [reflexivity|]. left. right. exists s. unfold S1. rewrite Er. reflexivity.
    + rewrite start_S1. eexists. split; [reflexivity|]. right. split; [reflexivity|]. exists s. reflexivity.
  - (* other *)
    exists st. split; [reflexivity|exact Hst].
Qed.

Lemma xsum_cons x xs : xsum (x :: xs) = x_size x + xsum xs.
Proof. reflexivity. Qed.

Lemma xsum_app a b : xsum (a ++ b) = xsum a + xsum b.
Proof. unfold xsum. rewrite map_app, sumN_app. reflexivity. Qed.

Lemma loop_inner done xs : forall st pos lm,
  pre_state done st -> forallb inner_kind xs = true ->
  exists st1 lm', pre_state done st1 /\
    forall rest, seg_decode_loop (map TX xs ++ rest) st pos lm = seg_decode_loop rest st1 (pos + xsum xs) lm'.
Proof.
  induction xs as [|x xs IH]; intros st pos lm Hst Hk.
  - exists st, lm. split; [exact Hst|]. intros rest. cbn [map app xsum sumN]. unfold xsum. cbn [map sumN].
    rewrite N.add_0_r. reflexivity.
  - cbn [forallb] in Hk. apply andb_true_iff in Hk. destruct Hk as [Hx Hxs].
    destruct (add_inner done st pos x lm Hst Hx) as (st1 & E1 & Hst1).
    destruct (IH st1 (pos + x_size x) false Hst1 Hxs) as (st2 & lm' & Hst2 & Hl).
    exists st2, lm'. split; [exact Hst2|]. intros rest. cbn [map app seg_decode_loop]. rewrite E1. cbn [rbind tb_size is_moof].
    rewrite Hl. rewrite xsum_cons. f_equal. lia.
Qed.

Lemma add_moof done st pos sz trafs lm :
  pre_state done st -> moofed done ->
  exists s, add_box st pos (TMoof sz trafs) lm = Ok (S1 s (mkDfr (Some (pos, trafs)) None :: rev done)).
Proof.
  intros Hst Hm. cbn [add_box].
  destruct Hst as [[[-> [b ->]]|[s ->]]|[-> [s ->]]].
  - exists false. reflexivity.
  - exists s. unfold S1. cbn [fs_sidxs fs_segs fs_mdat]. change (mkFstate true [] [mkDseg s (rev done)] None) with (S1 s (rev done)).
    rewrite start_S1. unfold upd_last_seg, S1. cbn [fs_segs fs_fragmented fs_sidxs fs_mdat dg_frags dg_styp].
    destruct (rev done) as [|f l] eqn:Er; [reflexivity|].
    assert (Hf : dr_moof f <> None).
    { unfold moofed in Hm. rewrite Forall_forall in Hm. apply Hm. apply in_rev. rewrite Er. left. reflexivity. }
    destruct (dr_moof f); [reflexivity|congruence].
  - exists s. reflexivity.
Qed.

Lemma add_mdat s f l pos h p :
  add_box (S1 s (f :: l)) pos (TMdat h p) true = Ok (S1 s (mkDfr (dr_moof f) (Some (pos + h, p)) :: l)).
Proof. reflexivity. Qed.

(* ------------------------------------------------------------------ the fragments the decoder ends up with *)
Definition item_dfr (pos : N) (it : eitem) : dfr :=
  let fe := ei_fe it in
  let m := fr_mdat fe in
  let p := pos + xsum (ei_pre it) in
  mkDfr (Some (p, wire_trafs fe)) (Some (p + moof_size fe + md_header_size m, md_written m ++ ei_lz it)).

Fixpoint items_dfrs (pos : N) (its : list eitem) : list dfr :=
  match its with
  | [] => []
  | it :: rest => item_dfr pos it :: items_dfrs (pos + stream_size (item_boxes it)) rest
  end.

Definition item_kinds (it : eitem) : bool :=
  forallb inner_kind (ei_pre it) && forallb inner_kind (ei_post it) && forallb inner_kind (ei_between it).

Lemma stream_size_app a b : stream_size (a ++ b) = stream_size a + stream_size b.
Proof. unfold stream_size. rewrite map_app, sumN_app. reflexivity. Qed.

Lemma stream_size_TX xs : stream_size (map TX xs) = xsum xs.
Proof. unfold stream_size, xsum. rewrite map_map. reflexivity. Qed.

Lemma item_boxes_size it :
  stream_size (item_boxes it) =
    xsum (ei_pre it) + moof_size (ei_fe it)
    + (md_header_size (fr_mdat (ei_fe it)) + lenN (md_written (fr_mdat (ei_fe it)) ++ ei_lz it))
    + xsum (ei_post it) + xsum (ei_between it).
Proof.
  unfold item_boxes. rewrite !stream_size_app, !stream_size_TX. unfold stream_size. cbn [map sumN tb_size]. lia.
Qed.

Lemma moofed_snoc done f : moofed done -> dr_moof f <> None -> moofed (done ++ [f]).
Proof. intros H1 H2. apply Forall_app. split; [exact H1|constructor; [exact H2|constructor]]. Qed.

Lemma decode_items its : forall done st pos lm,
  bnd done st -> moofed done -> forallb item_kinds its = true ->
  exists st', seg_decode_loop (flat_map item_boxes its) st pos lm = Ok st' /\ bnd (done ++ items_dfrs pos its) st'.
Proof.
  induction its as [|it its IH]; intros done st pos lm Hst Hm Hk.
  - exists st. split; [reflexivity|]. cbn [items_dfrs]. rewrite app_nil_r. exact Hst.
  - cbn [forallb] in Hk. apply andb_true_iff in Hk. destruct Hk as [Hit Hits].
    unfold item_kinds in Hit. rewrite !andb_true_iff in Hit. destruct Hit as [[Hpre Hpost] Hbet].
    cbn [flat_map]. unfold item_boxes at 1. rewrite <- !app_assoc.
    destruct (loop_inner done (ei_pre it) st pos lm (or_introl Hst) Hpre) as (st1 & lm1 & Hst1 & L1). rewrite L1.
    cbn [app seg_decode_loop].
    destruct (add_moof done st1 (pos + xsum (ei_pre it)) (moof_size (ei_fe it)) (wire_trafs (ei_fe it)) lm1 Hst1 Hm) as (s & E2).
    rewrite E2. cbn [rbind is_moof tb_size]. rewrite add_mdat. cbn [rbind is_moof tb_size dr_moof].
    set (f := item_dfr pos it).
    assert (Ef : mkDfr (Some (pos + xsum (ei_pre it), wire_trafs (ei_fe it)))
                   (Some (pos + xsum (ei_pre it) + moof_size (ei_fe it) + md_header_size (fr_mdat (ei_fe it)),
                          md_written (fr_mdat (ei_fe it)) ++ ei_lz it)) = f) by reflexivity.
    rewrite Ef.
    assert (Hb : pre_state (done ++ [f]) (S1 s (f :: rev done))).
    { left. right. exists s. rewrite rev_app_distr. reflexivity. }
    assert (Hpb : forallb inner_kind (ei_post it ++ ei_between it) = true) by (rewrite forallb_app, Hpost, Hbet; reflexivity).
    rewrite app_assoc, <- map_app.
    destruct (loop_inner (done ++ [f]) (ei_post it ++ ei_between it) (S1 s (f :: rev done))
                (pos + xsum (ei_pre it) + moof_size (ei_fe it) +
                 (md_header_size (fr_mdat (ei_fe it)) + lenN (md_written (fr_mdat (ei_fe it)) ++ ei_lz it)))
                false Hb Hpb) as (st2 & lm2 & Hst2 & L2).
    rewrite L2.
    assert (Hbnd2 : bnd (done ++ [f]) st2).
    { destruct Hst2 as [H|[H _]]; [exact H|]. destruct done; discriminate. }
    assert (Hm2 : moofed (done ++ [f])) by (apply moofed_snoc; [exact Hm|discriminate]).
    destruct (IH (done ++ [f]) st2
                (pos + xsum (ei_pre it) + moof_size (ei_fe it) +
                 (md_header_size (fr_mdat (ei_fe it)) + lenN (md_written (fr_mdat (ei_fe it)) ++ ei_lz it)) +
                 xsum (ei_post it ++ ei_between it)) lm2 Hbnd2 Hm2 Hits) as (st' & E' & Hb').
    exists st'. split.
    + exact E'.
    + cbn [items_dfrs]. rewrite <- app_assoc in Hb'. cbn [app] in Hb'.
      replace (pos + stream_size (item_boxes it)) with
        (pos + xsum (ei_pre it) + moof_size (ei_fe it) +
         (md_header_size (fr_mdat (ei_fe it)) + lenN (md_written (fr_mdat (ei_fe it)) ++ ei_lz it)) +
         xsum (ei_post it ++ ei_between it)); [exact Hb'|].
      rewrite item_boxes_size, xsum_app. lia.
Qed.

(* the head of the segment: nothing, or styp followed by sidx boxes *)
Lemma decode_head head : forall b pos0,
  head_ok head = true ->
  exists st lm, bnd [] st /\
    forall rest, seg_decode_loop (map TX head ++ rest) (S0 b) pos0 false = seg_decode_loop rest st (pos0 + xsum head) lm.
Proof.
  intros b pos0 H. destruct head as [|s sx].
  - exists (S0 b), false. split; [left; split; [reflexivity|exists b; reflexivity]|].
    intros rest. cbn [map app]. unfold xsum. cbn [map sumN]. rewrite N.add_0_r. reflexivity.
  - cbn [head_ok] in H. destruct (x_kind s) eqn:Es; try discriminate.
    assert (G : forall sx pos lm, forallb (fun x => match x_kind x with XSidx => true | _ => false end) sx = true ->
                  forall rest, seg_decode_loop (map TX sx ++ rest) (S1 true []) pos lm =
                               seg_decode_loop rest (S1 true []) (pos + xsum sx) (match sx with [] => lm | _ => false end)).
    { clear. induction sx as [|x sx IH]; intros pos lm H rest.
      - cbn [map app]. unfold xsum. cbn [map sumN]. rewrite N.add_0_r. reflexivity.
      - cbn [forallb] in H. apply andb_true_iff in H. destruct H as [Hx Hs].
        cbn [map app seg_decode_loop add_box]. destruct (x_kind x) eqn:Ex; try discriminate.
        cbn [S1 fs_segs rbind tb_size is_moof]. change (mkFstate true [] [mkDseg true []] None) with (S1 true []).
        rewrite IH by exact Hs. rewrite xsum_cons. destruct sx; f_equal; lia. }
    exists (S1 true []), (match sx with [] => false | _ => false end). split; [right; exists true; reflexivity|].
    intros rest. cbn [map app seg_decode_loop add_box]. rewrite Es. cbn [S0 fs_sidxs fs_segs fs_mdat rbind tb_size is_moof].
    change (mkFstate true [] [mkDseg true []] None) with (S1 true []).
    rewrite G by exact H. rewrite xsum_cons. destruct sx; f_equal; lia.
Qed.

(* DecodeFile on the stream of a segment: the File's fragments are the encoded ones, each at its position *)
Lemma decode_stream head its b pos0 :
  head_ok head = true -> forallb item_kinds its = true ->
  exists st, seg_decode b pos0 (seg_stream head its) = Ok st /\
             file_frags st = items_dfrs (pos0 + xsum head) its.
Proof.
  intros Hh Hk. unfold seg_decode, seg_stream. change (mkFstate b [] [] None) with (S0 b).
  destruct (decode_head head b pos0 Hh) as (st0 & lm & Hb0 & L0). rewrite L0.
  destruct (decode_items its [] st0 (pos0 + xsum head) lm Hb0 (Forall_nil _) Hk) as (st & E & Hb).
  exists st. split; [exact E|]. apply file_frags_bnd. exact Hb.
Qed.

(* ------------------------------------------------------------------ the independence lemma *)
(* a decoded fragment of the stream is the single-fragment view at its own position: one data mode, and the
   boxes before the moof are the ones the fragment model counts in fr_pre *)
Definition item_pure (it : eitem) : bool :=
  let m := fr_mdat (ei_fe it) in
  ((md_lazy m =? 0) && is_nil (ei_lz it)) || ((0 <? md_lazy m) && is_nil (md_written m)).

Lemma item_view pos it tx :
  item_pure it = true -> fr_pre (ei_fe it) = xsum (ei_pre it) ->
  seg_get_full (item_dfr pos it) tx = get_full_samples (decoded_view (ei_fe it) pos (ei_lz it)) tx.
Proof.
  intros Hp Hpre. unfold seg_get_full, item_dfr. cbn [dr_moof dr_mdat]. f_equal.
  unfold decoded_view, wire_trafs. rewrite Hpre. f_equal.
  unfold item_pure in Hp. apply orb_true_iff in Hp. destruct Hp as [Hp|Hp]; apply andb_true_iff in Hp; destruct Hp as [H1 H2].
  - apply N.eqb_eq in H1. rewrite H1. change (0 <? 0) with false. cbn iota.
    destruct (ei_lz it); [apply app_nil_r|discriminate].
  - rewrite H1. destruct (md_written (fr_mdat (ei_fe it))); [reflexivity|discriminate].
Qed.

Definition POSB : N := 4611686018427387904.

Lemma read_frags_views tx : forall its pos (exps : list (list fullsample)),
  Forall (fun it => item_pure it = true /\ fr_pre (ei_fe it) = xsum (ei_pre it)) its ->
  Forall2 (fun it e => forall p, p + fr_pre (ei_fe it) < POSB ->
                       get_full_samples (decoded_view (ei_fe it) p (ei_lz it)) tx = Ok e) its exps ->
  pos + stream_size (flat_map item_boxes its) < POSB ->
  read_frags (items_dfrs pos its) tx = Ok (concat exps).
Proof.
  induction its as [|it its IH]; intros pos exps Hp Hv Hb.
  - inversion Hv. reflexivity.
  - inversion Hv as [|? e ? exps' Hx Hr]; subst.
    inversion Hp as [|? ? [Hp1 Hp2] Hp']; subst.
    cbn [flat_map] in Hb. rewrite stream_size_app, item_boxes_size in Hb.
    cbn [items_dfrs read_frags concat]. rewrite item_view by assumption.
    rewrite Hx by (rewrite Hp2; lia). cbn [rbind].
    rewrite (IH _ exps' Hp' Hr); [reflexivity|]. rewrite item_boxes_size. lia.
Qed.

Lemma items_dfrs_length its : forall pos, length (items_dfrs pos its) = length its.
Proof. induction its as [|it its IH]; intros pos; cbn [items_dfrs length]; [reflexivity|]. rewrite IH. reflexivity. Qed.

(* the segment theorem in its general form: any items whose fragments read back e (at every position) *)
Lemma segment_generic head its exps b pos0 tx :
  head_ok head = true -> forallb item_kinds its = true ->
  Forall (fun it => item_pure it = true /\ fr_pre (ei_fe it) = xsum (ei_pre it)) its ->
  Forall2 (fun it e => forall p, p + fr_pre (ei_fe it) < POSB ->
                       get_full_samples (decoded_view (ei_fe it) p (ei_lz it)) tx = Ok e) its exps ->
  pos0 + stream_size (seg_stream head its) < POSB ->
  exists st, seg_decode b pos0 (seg_stream head its) = Ok st /\
             length (file_frags st) = length its /\
             seg_read st tx = Ok (concat exps).
Proof.
  intros Hh Hk Hp Hv Hb. destruct (decode_stream head its b pos0 Hh Hk) as (st & E & Ef).
  exists st. split; [exact E|]. split; [rewrite Ef; apply items_dfrs_length|].
  unfold seg_read. rewrite Ef. apply read_frags_views; try assumption.
  unfold seg_stream in Hb. rewrite stream_size_app, stream_size_TX in Hb. lia.
Qed.

(* what a fragment class has to provide: the item is well framed, of one data mode, and reads back e at every position *)
Definition item_reads (tx : option trex) (it : eitem) (e : list fullsample) : Prop :=
  item_kinds it = true /\ item_framed it = true /\ item_pure it = true /\ fr_pre (ei_fe it) = xsum (ei_pre it) /\
  forall p, p + fr_pre (ei_fe it) < POSB -> get_full_samples (decoded_view (ei_fe it) p (ei_lz it)) tx = Ok e.

Lemma reads_split tx its exps :
  Forall2 (item_reads tx) its exps ->
  forallb item_kinds its = true /\ forallb item_framed its = true /\
  Forall (fun it => item_pure it = true /\ fr_pre (ei_fe it) = xsum (ei_pre it)) its /\
  Forall2 (fun it e => forall p, p + fr_pre (ei_fe it) < POSB ->
                       get_full_samples (decoded_view (ei_fe it) p (ei_lz it)) tx = Ok e) its exps.
Proof.
  induction 1 as [|it e its exps (A & B & C & D & E) _ (I1 & I2 & I3 & I4)]; [repeat split; constructor|].
  cbn [forallb]. rewrite A, B, I1, I2. repeat split; constructor; auto.
Qed.

Lemma segment_any head its exps b pos0 tx :
  head_ok head = true -> Forall2 (item_reads tx) its exps ->
  pos0 + stream_size (seg_stream head its) < POSB ->
  forallb item_framed its = true /\
  exists st, seg_decode b pos0 (seg_stream head its) = Ok st /\
             length (file_frags st) = length its /\ seg_read st tx = Ok (concat exps).
Proof.
  intros Hh H Hb. destruct (reads_split tx its exps H) as (K1 & K2 & K3 & K4). split; [exact K2|].
  exact (segment_generic head its exps b pos0 tx Hh K1 K3 K4 Hb).
Qed.

Lemma encode_frags_Forall2 opt : forall frs fes,
  encode_frags opt frs = Ok fes -> Forall2 (fun fr fe => encode_frag opt fr = Ok fe) frs fes.
Proof.
  induction frs as [|fr frs IH]; intros fes H; cbn [encode_frags] in H.
  - injection H as <-. constructor.
  - destruct (encode_frag opt fr) as [fe| | |] eqn:E; try discriminate. cbn [rbind] in H.
    destruct (encode_frags opt frs) as [fes'| | |] eqn:E2; try discriminate. cbn [rbind] in H. injection H as <-.
    constructor; [exact E|apply IH; reflexivity].
Qed.

(* ------------------------------------------------------------------ segments of multi-track fragments, full samples *)
Definition hist_frag (h : fhist) : option frag := snd (run_ops (hist_start h) (fh_ops h)).

Definition hist_kinds (h : fhist) : bool :=
  forallb inner_kind (fh_pre h) && forallb inner_kind (fh_post h) && forallb inner_kind (fh_between h).

(* a fragment history as in C05_roundtrip *)
Definition hist_ok (h : fhist) : Prop :=
  NoDup (fh_tracks h) /\ N.of_nat (length (fh_ops h)) < 4294967296 /\ forallb is_full_to (fh_ops h) = true /\
  Forall (fun o => sized_f (op_full o)) (fh_ops h) /\ hist_kinds h = true.

(* the 2 GiB guard of C05_roundtrip (int32 data offsets) *)
Definition frag_guard (fr fe : frag) : Prop :=
  moof_size fe + md_header_size (fr_mdat fe) + lenN (md_data (fr_mdat fr)) < 2147483648.

Lemma full_item_facts h fr opt fe :
  hist_ok h -> hist_frag h = Some fr -> encode_frag opt fr = Ok fe ->
  let it := hist_item h fe [] in
  item_kinds it = true /\ item_framed it = true /\ item_pure it = true /\ fr_pre (ei_fe it) = xsum (ei_pre it).
Proof.
  intros (Hnd & Hlen & Hfull & Hsz & Hk) Hf Henc it.
  unfold hist_frag in Hf. destruct (run_ops (hist_start h) (fh_ops h)) as [cs r] eqn:Hrun. cbn [snd] in Hf. subst r.
  pose proof (ghost_ginv (fh_tracks h) (fh_ops h) cs (hist_start h) fr Hnd Hlen Hfull
                (create_multi_extras_ginv _ _ _ _ _ Hnd) Hrun) as Hi.
  destruct Hi as (_ & _ & _ & _ & Hdat & Hpar & Hlaz).
  destruct (encode_frag_mdat opt fr fe Henc) as (El & Ed & Ep).
  destruct (encode_frag_frame opt fr fe Henc) as (Epre & _).
  destruct (run_ops_frame _ _ _ _ Hrun) as ((Rpre & _) & _).
  split; [exact Hk|]. split; [|split].
  - unfold item_framed, it. cbn [hist_item ei_fe ei_lz ei_post is_nil]. rewrite orb_true_l, andb_true_r.
    apply N.eqb_eq. unfold md_payload, md_written, md_data_length. rewrite El, Hlaz, Ep, Hpar. cbn. lia.
  - unfold item_pure, it. cbn [hist_item ei_fe ei_lz is_nil]. rewrite El, Hlaz. reflexivity.
  - unfold it. cbn [hist_item ei_fe ei_pre]. rewrite Epre, Rpre. reflexivity.
Qed.

(* a multi-track fragment of full samples, read with a trex or with a nil trex *)
Lemma reads_multi h fr opt fe otx T :
  hist_ok h -> hist_frag h = Some fr -> encode_frag opt fr = Ok fe -> frag_guard fr fe ->
  picks otx (fh_tracks h) T -> consistent (added_fulls (fh_tracks h) T (fh_ops h)) ->
  item_reads otx (hist_item h fe []) (added_fulls (fh_tracks h) T (fh_ops h)).
Proof.
  intros Hok Hf He Hg Hpick Hc. destruct (full_item_facts h fr opt fe Hok Hf He) as (F1 & F2 & F3 & F4).
  repeat split; try assumption. intros p Hp. cbn [hist_item ei_fe ei_lz] in *.
  destruct Hok as (Hnd & Hlen & Hfull & Hsz & Hk).
  unfold hist_frag in Hf. destruct (run_ops (hist_start h) (fh_ops h)) as [cs r] eqn:Hrun. cbn [snd] in Hf. subst r.
  exact (roundtrip_multi_ops (fh_tracks h) (fh_ops h) cs (hist_start h) fr fr [] opt fe p otx T Hnd Hlen Hfull Hsz
           (create_multi_extras_ginv _ _ _ _ _ Hnd) Hrun eq_refl eq_refl He Hg Hp Hpick Hc).
Qed.

Lemma segment_roundtrip head opt b pos0 tx : forall hs frs fes,
  head_ok head = true -> Forall hist_ok hs ->
  Forall2 (fun h fr => hist_frag h = Some fr) hs frs ->
  encode_frags opt frs = Ok fes ->
  Forall2 frag_guard frs fes ->
  Forall (fun h => consistent (added_fulls (fh_tracks h) (tx_track tx) (fh_ops h))) hs ->
  let its := hist_items hs fes in
  pos0 + stream_size (seg_stream head its) < POSB ->
  forallb item_framed its = true /\
  exists st, seg_decode b pos0 (seg_stream head its) = Ok st /\
    length (file_frags st) = length hs /\
    seg_read st (Some tx) = Ok (flat_map (fun h => added_fulls (fh_tracks h) (tx_track tx) (fh_ops h)) hs).
Proof.
  intros hs frs fes Hh Hok Hfr Henc Hg Hcons its Hb.
  assert (K : Forall2 (item_reads (Some tx)) its (map (fun h => added_fulls (fh_tracks h) (tx_track tx) (fh_ops h)) hs) /\
              length its = length hs).
  { unfold its. clear Hb its. apply encode_frags_Forall2 in Henc. revert frs fes Hfr Henc Hg Hok Hcons.
    induction hs as [|h hs IH]; intros frs fes Hfr He Hg Hok Hcons; [split; constructor|].
    inversion Hfr as [|? fr ? frs' Hf1 Hfr']; subst. inversion He as [|? fe ? fes' He1 He']; subst.
    inversion Hg as [|? ? ? ? Hg1 Hg']; subst. inversion Hok as [|? ? Hok1 Hok']; subst.
    inversion Hcons as [|? ? Hc1 Hc']; subst. destruct (IH frs' fes' Hfr' He' Hg' Hok' Hc') as (A & B).
    cbn [hist_items map length]. split; [|rewrite B; reflexivity].
    constructor; [|exact A]. exact (reads_multi h fr opt fe (Some tx) (tx_track tx) Hok1 Hf1 He1 Hg1 eq_refl Hc1). }
  destruct K as (K1 & K2). destruct (segment_any head its _ b pos0 (Some tx) Hh K1 Hb) as (F & st & E & El & Er).
  split; [exact F|]. exists st. split; [exact E|]. split; [rewrite El; exact K2|]. rewrite Er, flat_map_concat_map. reflexivity.
Qed.
