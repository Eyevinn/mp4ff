(* C05LazyProofs.v — metadata-only additions build the same moof as full additions. *)
From V.lib Require Import Base.
From V.c05 Require Import C05Model C05FragModel C05HistProofs.

(* AddFullSample -> AddSample, AddFullSampleToTrack -> AddSampleToTrack (data written separately) *)
Definition to_lazy (o : op) : op :=
  match o with
  | OFull s d _ => OMeta s d
  | OFullTo t s d _ => OMetaTo t s d
  | o => o
  end.

Definition same_meta (a b : frag) : Prop :=
  fr_trafs a = fr_trafs b /\ fr_next a = fr_next b /\
  fr_pre a = fr_pre b /\ fr_moofx a = fr_moofx b /\ fr_post a = fr_post b.

Definition lazy_untouched (b b' : frag) : Prop :=
  md_data (fr_mdat b') = md_data (fr_mdat b) /\ md_parts (fr_mdat b') = md_parts (fr_mdat b).

Lemma step_lazy a b o :
  is_full o = true -> same_meta a b ->
  match step a o, step b (to_lazy o) with
  | Ok a', Ok b' => same_meta a' b' /\ lazy_untouched b b' /\
                    md_lazy (fr_mdat b') = u64 (md_lazy (fr_mdat b) + s_size (op_first_sample o))
  | Err, Err => True
  | Panic, Panic => True
  | _, _ => False
  end.
Proof.
  intros Hf (Ht & Hn & Hp & Hx & Hq).
  destruct o as [s d data|t s d data|t s d|s d|ss d|d ss data]; try discriminate; cbn [step to_lazy op_first_sample].
  - unfold add_first. rewrite <- Ht. destruct (fr_trafs a) as [|t ts]; [exact I|].
    destruct (tf_truns t) as [|r rs]; [exact I|]. cbn [rbind].
    split; [|split; [split; reflexivity|reflexivity]].
    unfold same_meta. cbn [fr_with fr_trafs fr_next fr_pre fr_moofx fr_post]. repeat split; assumption.
  - unfold add_sample_to_track. rewrite <- Ht, <- Hn.
    destruct (add_to_track_trafs (fr_trafs a) t (fr_next a) s d) as [[ts n]|]; [|exact I]. cbn [rbind].
    split; [|split; [split; reflexivity|reflexivity]].
    unfold same_meta. cbn [fr_with fr_trafs fr_next fr_pre fr_moofx fr_post]. repeat split; assumption.
Qed.

Lemma history_lazy ops : forall a b cs a',
  forallb is_full ops = true -> same_meta a b ->
  run_ops a ops = (cs, Some a') ->
  exists b', run_ops b (map to_lazy ops) = (cs, Some b') /\ same_meta a' b' /\ lazy_untouched b b' /\
             md_lazy (fr_mdat b') =
               fold_left (fun acc o => u64 (acc + s_size (op_first_sample o))) (accepted cs ops) (md_lazy (fr_mdat b)).
Proof.
  intros a b cs a' Hf Hm H. apply run_ops_runs_to in H. revert b Hf Hm.
  induction H as [a|a o a1 ops cs a' E _ IH|a o ops cs a' E _ IH]; intros b Hf Hm; cbn [run_ops map accepted fold_left].
  - exists b. split; [reflexivity|]. split; [exact Hm|]. repeat split.
  - cbn [forallb] in Hf. apply andb_true_iff in Hf. destruct Hf as [Hf1 Hf2].
    pose proof (step_lazy a b o Hf1 Hm) as S. rewrite E in S.
    destruct (step b (to_lazy o)) as [b1| | |]; try contradiction. destruct S as (Hm1 & (D1 & P1) & L1).
    destruct (IH b1 Hf2 Hm1) as (b' & -> & Hm' & (D2 & P2) & L2).
    exists b'. split; [reflexivity|]. split; [exact Hm'|]. split; [split; congruence|]. rewrite L2, L1. reflexivity.
  - cbn [forallb] in Hf. apply andb_true_iff in Hf. destruct Hf as [Hf1 Hf2].
    pose proof (step_lazy a b o Hf1 Hm) as S. rewrite E in S.
    destruct (step b (to_lazy o)) as [b1| | |]; try contradiction.
    destruct (IH b Hf2 Hm) as (b' & -> & R). exists b'. split; [reflexivity|exact R].
Qed.

(* moof depends on the metadata only *)
Lemma moof_size_same a b : same_meta a b -> moof_size a = moof_size b.
Proof. intros (Ht & _ & _ & Hx & _). unfold moof_size. rewrite Ht, Hx. reflexivity. Qed.
