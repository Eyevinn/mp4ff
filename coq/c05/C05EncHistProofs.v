(* C05EncHistProofs.v — Encode inside the op histories: a history of additions interleaved with Encode calls
   builds a fragment that is, up to the data offsets / the large-size mark / (after optimised encodes) the flag
   word and tfhd defaults of the first trun, the fragment the additions alone build (simulation, proved once for
   a parametrised relation). *)
From V.lib Require Import Base.
From V.c05 Require Import C05Model C05FragModel C05OptProofs C05HistProofs C05OffProofs C05GhostProofs
  C05ReadProofs C05RoundProofs C05EncHistModel.
From Coq Require Import Permutation.

Definition msim (m1 m : mdat) : Prop :=
  md_data m1 = md_data m /\ md_parts m1 = md_parts m /\ md_lazy m1 = md_lazy m.

Lemma msim_refl m : msim m m.
Proof. repeat split. Qed.

Definition rrel {A} (R : A -> A -> Prop) (x y : res A) : Prop :=
  match x, y with
  | Ok a, Ok b => R a b
  | Err, Err => True
  | Panic, Panic => True
  | OutOfFuel, OutOfFuel => True
  | _, _ => False
  end.

Lemma Forall2_last {A} (R : A -> A -> Prop) l1 l2 d1 d2 :
  Forall2 R l1 l2 -> R d1 d2 -> R (last l1 d1) (last l2 d2).
Proof.
  intros H Hd. induction H as [|a b l1 l2 Hab H IH]; [exact Hd|].
  cbn [last]. destruct H as [|a' b' l1' l2' Hab' H']; [exact Hab|]. exact IH.
Qed.

Lemma Forall2_removelast {A} (R : A -> A -> Prop) l1 l2 :
  Forall2 R l1 l2 -> Forall2 R (removelast l1) (removelast l2).
Proof.
  intros H. induction H as [|a b l1 l2 Hab H IH]; [constructor|].
  cbn [removelast]. destruct H as [|a' b' l1' l2' Hab' H']; [constructor|]. constructor; [exact Hab|exact IH].
Qed.

(* run_hops a hs = (cs, Some a'): the history did not panic *)
Inductive hruns_to : frag -> list hop -> list oclass -> frag -> Prop :=
| HR_nil a : hruns_to a [] [] a
| HR_ok a o a1 hs cs a' : step a o = Ok a1 -> hruns_to a1 hs cs a' -> hruns_to a (HAdd o :: hs) (COk :: cs) a'
| HR_err a o hs cs a' : step a o = Err -> hruns_to a hs cs a' -> hruns_to a (HAdd o :: hs) (CErr :: cs) a'
| HR_enc a opt c a1 hs cs a' :
    encode_state opt a = (c, Some a1) -> hruns_to a1 hs cs a' -> hruns_to a (HEnc opt :: hs) (c :: cs) a'.

Lemma run_hops_hruns_to hs : forall a cs a', run_hops a hs = (cs, Some a') -> hruns_to a hs cs a'.
Proof.
  induction hs as [|[o|opt] hs IH]; intros a cs a'; cbn [run_hops].
  - intros [= <- <-]. constructor.
  - destruct (step a o) as [a1| | |] eqn:E; try discriminate.
    + destruct (run_hops a1 hs) as [cs1 r1] eqn:E1. intros [= <- ->]. econstructor; eauto.
    + destruct (run_hops a hs) as [cs1 r1] eqn:E1. intros [= <- ->]. apply HR_err; auto.
  - destruct (encode_state opt a) as [c [a1|]] eqn:E; [|discriminate].
    destruct (run_hops a1 hs) as [cs1 r1] eqn:E1. intros [= <- ->]. econstructor; eauto.
Qed.

(* what every successful addition and every Encode preserves is preserved by a history *)
Lemma run_hops_inv (P : frag -> Prop) :
  (forall a o a', P a -> step a o = Ok a' -> P a') ->
  (forall opt a c a', P a -> encode_state opt a = (c, Some a') -> P a') ->
  forall hs a cs a', P a -> run_hops a hs = (cs, Some a') -> P a'.
Proof.
  intros HS HE hs a cs a' H0 H. apply run_hops_hruns_to in H.
  induction H as [a|a o a1 hs cs a' E _ IH|a o hs cs a' _ _ IH|a opt c a1 hs cs a' E _ IH]; eauto.
Qed.

Section Sim.
  Variable Q : trun -> trun -> Prop.
  Variable HQ : tfhd -> tfhd -> Prop.
  Hypothesis Q_won : forall a b, Q a b -> tr_won a = tr_won b.
  Hypothesis Q_samples : forall a b, Q a b -> tr_samples a = tr_samples b.
  Hypothesis Q_create : forall n, Q (create_trun n) (create_trun n).
  Hypothesis Q_add : forall a b ss, Q a b -> Q (tr_add a ss) (tr_add b ss).
  Hypothesis HQ_track : forall a b, HQ a b -> tf_track a = tf_track b.

  Definition tsimQ (t1 t : traf) : Prop :=
    tf_dt t1 = tf_dt t /\ HQ (tf_hd t1) (tf_hd t) /\ Forall2 Q (tf_truns t1) (tf_truns t).
  Definition fsimQ (a b : frag) : Prop :=
    Forall2 tsimQ (fr_trafs a) (fr_trafs b) /\ msim (fr_mdat a) (fr_mdat b) /\
    fr_next a = fr_next b /\ fr_pre a = fr_pre b.

  Lemma add_first_sim a b ss dts :
    Forall2 tsimQ (fr_trafs a) (fr_trafs b) ->
    rrel (Forall2 tsimQ) (add_first a ss dts) (add_first b ss dts).
  Proof.
    intros H. unfold add_first.
    destruct (fr_trafs a) as [|t1 ts1]; destruct (fr_trafs b) as [|t ts]; inversion H as [|? ? ? ? Ht Hts]; subst; [exact I|].
    destruct Ht as (Hdt & Hh & Hr).
    destruct (tf_truns t1) as [|r1 rs1]; destruct (tf_truns t) as [|r rs]; inversion Hr as [|? ? ? ? Hq Hrs]; subst; [exact I|].
    cbn [rrel]. constructor; [|exact Hts]. unfold tsimQ. cbn [tf_dt tf_hd tf_truns].
    rewrite (Q_samples _ _ Hq), Hdt. split; [reflexivity|]. split; [exact Hh|].
    constructor; [apply Q_add; exact Hq|exact Hrs].
  Qed.

  Definition att_tail (t : traf) (truns1 : list trun) (next1 : N) (s : sample) (dts : N) : traf * N :=
    let dt := match truns1 with
              | [r] => if u32 (lenN (tr_samples r)) =? 0 then set_base dts else tf_dt t
              | _ => tf_dt t
              end in
    let lastr := last truns1 (create_trun 0) in
    if negb (tr_won lastr =? u32 (next1 + 4294967295))
    then (mkTraf (tf_hd t) dt (truns1 ++ [tr_add (create_trun next1) [s]]) (tf_extra t), u32 (next1 + 1))
    else (mkTraf (tf_hd t) dt (removelast truns1 ++ [tr_add lastr [s]]) (tf_extra t), next1).

  Lemma add_to_traf_tail t next s dts :
    add_to_traf t next s dts =
      match tf_truns t with
      | [] => att_tail t [create_trun next] (u32 (next + 1)) s dts
      | l => att_tail t l next s dts
      end.
  Proof. unfold add_to_traf. destruct (tf_truns t); reflexivity. Qed.

  Lemma att_tail_sim t1 t la l n s dts :
    tf_dt t1 = tf_dt t -> HQ (tf_hd t1) (tf_hd t) -> Forall2 Q la l ->
    tsimQ (fst (att_tail t1 la n s dts)) (fst (att_tail t l n s dts)) /\
    snd (att_tail t1 la n s dts) = snd (att_tail t l n s dts).
  Proof.
    intros Hdt Hh HF. unfold att_tail.
    assert (Edt : match la with [r] => if u32 (lenN (tr_samples r)) =? 0 then set_base dts else tf_dt t1 | _ => tf_dt t1 end
                  = match l with [r] => if u32 (lenN (tr_samples r)) =? 0 then set_base dts else tf_dt t | _ => tf_dt t end).
    { inversion HF as [|? ? ? ? Hq Hrs]; subst; [exact Hdt|].
      inversion Hrs; subst; [|exact Hdt]. rewrite (Q_samples _ _ Hq), Hdt. reflexivity. }
    rewrite Edt.
    pose proof (Forall2_last Q _ _ _ _ HF (Q_create 0)) as Hl.
    rewrite (Q_won _ _ Hl).
    destruct (negb (tr_won (last l (create_trun 0)) =? u32 (n + 4294967295))); cbn [fst snd].
    - split; [|reflexivity]. unfold tsimQ. cbn [tf_dt tf_hd tf_truns]. split; [reflexivity|]. split; [exact Hh|].
      apply Forall2_app; [exact HF|]. constructor; [apply Q_add, Q_create|constructor].
    - split; [|reflexivity]. unfold tsimQ. cbn [tf_dt tf_hd tf_truns]. split; [reflexivity|]. split; [exact Hh|].
      apply Forall2_app; [apply Forall2_removelast; exact HF|]. constructor; [apply Q_add; exact Hl|constructor].
  Qed.

  Lemma add_to_traf_sim t1 t next s dts :
    tsimQ t1 t ->
    tsimQ (fst (add_to_traf t1 next s dts)) (fst (add_to_traf t next s dts)) /\
    snd (add_to_traf t1 next s dts) = snd (add_to_traf t next s dts).
  Proof.
    intros (Hdt & Hh & Hr). rewrite !add_to_traf_tail.
    destruct (tf_truns t1) as [|r1 rs1]; destruct (tf_truns t) as [|r rs]; inversion Hr as [|? ? ? ? Hq Hrs]; subst.
    - apply att_tail_sim; [exact Hdt|exact Hh|]. constructor; [apply Q_create|constructor].
    - apply att_tail_sim; [exact Hdt|exact Hh|exact Hr].
  Qed.

  Definition orel (x y : option (list traf * N)) : Prop :=
    match x, y with
    | Some (ta, na), Some (tb, nb) => Forall2 tsimQ ta tb /\ na = nb
    | None, None => True
    | _, _ => False
    end.

  Lemma add_to_track_trafs_sim ta tb track next s dts :
    Forall2 tsimQ ta tb ->
    orel (add_to_track_trafs ta track next s dts) (add_to_track_trafs tb track next s dts).
  Proof.
    intros H. induction H as [|t1 t ts1 ts Ht Hts IH]; cbn [add_to_track_trafs]; [exact I|].
    pose proof Ht as (_ & Hh & _). rewrite (HQ_track _ _ Hh).
    destruct (tf_track (tf_hd t) =? track).
    - pose proof (add_to_traf_sim t1 t next s dts Ht) as [H1 H2].
      destruct (add_to_traf t1 next s dts) as [t1' n1']. destruct (add_to_traf t next s dts) as [t' n'].
      cbn [fst snd] in H1, H2. cbn [orel]. split; [constructor; assumption|exact H2].
    - destruct (add_to_track_trafs ts1 track next s dts) as [[ra na]|];
        destruct (add_to_track_trafs ts track next s dts) as [[rb nb]|]; cbn [orel] in IH |- *; try contradiction; [|exact I].
      destruct IH as [IH1 IH2]. split; [constructor; assumption|exact IH2].
  Qed.

  Lemma msim_add_data m1 m d : msim m1 m -> msim (md_add_data m1 d) (md_add_data m d).
  Proof. intros (A & B & C). unfold msim, md_add_data. cbn [md_data md_parts md_lazy]. rewrite A. repeat split; assumption. Qed.
  Lemma msim_add_lazy m1 m n : msim m1 m -> msim (md_add_lazy m1 n) (md_add_lazy m n).
  Proof. intros (A & B & C). unfold msim, md_add_lazy. cbn [md_data md_parts md_lazy]. rewrite C. repeat split; assumption. Qed.
  Lemma msim_set_lazy0 m1 m : msim m1 m -> msim (md_set_lazy0 m1) (md_set_lazy0 m).
  Proof. intros (A & B & C). unfold msim, md_set_lazy0. cbn [md_data md_parts md_lazy]. repeat split; assumption. Qed.

  Lemma add_sample_to_track_sim a b track s dts :
    fsimQ a b -> rrel fsimQ (add_sample_to_track a track s dts) (add_sample_to_track b track s dts).
  Proof.
    intros (HT & Hm & Hn & Hp). unfold add_sample_to_track. rewrite Hn.
    pose proof (add_to_track_trafs_sim _ _ track (fr_next b) s dts HT) as Ho.
    destruct (add_to_track_trafs (fr_trafs a) track (fr_next b) s dts) as [[ra na]|];
      destruct (add_to_track_trafs (fr_trafs b) track (fr_next b) s dts) as [[rb nb]|]; cbn [orel] in Ho; try contradiction; [|exact I].
    destruct Ho as [Ho1 ->]. cbn [rrel]. unfold fsimQ. cbn [fr_with fr_trafs fr_mdat fr_next fr_pre].
    split; [exact Ho1|]. split; [apply msim_add_lazy; exact Hm|]. split; [reflexivity|exact Hp].
  Qed.

  Lemma step_sim a b o : fsimQ a b -> rrel fsimQ (step a o) (step b o).
  Proof.
    intros H. pose proof H as (HT & Hm & Hn & Hp).
    destruct o as [s d data|t s d data|t s d|s d|ss d|d ss data]; cbn [step].
    - pose proof (add_first_sim a b [s] d HT) as Ha.
      destruct (add_first a [s] d) as [ta| | |]; destruct (add_first b [s] d) as [tb| | |]; cbn [rrel rbind] in Ha |- *; try contradiction; try exact I.
      unfold fsimQ. cbn [fr_with fr_trafs fr_mdat fr_next fr_pre].
      split; [exact Ha|]. split; [apply msim_add_data; exact Hm|]. split; assumption.
    - pose proof (add_sample_to_track_sim a b t s d H) as Ha.
      destruct (add_sample_to_track a t s d) as [a1| | |]; destruct (add_sample_to_track b t s d) as [b1| | |];
        cbn [rrel rbind] in Ha |- *; try contradiction; try exact I.
      destruct Ha as (HT1 & Hm1 & Hn1 & Hp1). unfold fsimQ. cbn [fr_with fr_trafs fr_mdat fr_next fr_pre].
      split; [exact HT1|]. split; [apply msim_add_data, msim_set_lazy0; exact Hm1|]. split; assumption.
    - apply add_sample_to_track_sim. exact H.
    - pose proof (add_first_sim a b [s] d HT) as Ha.
      destruct (add_first a [s] d) as [ta| | |]; destruct (add_first b [s] d) as [tb| | |]; cbn [rrel rbind] in Ha |- *; try contradiction; try exact I.
      unfold fsimQ. cbn [fr_with fr_trafs fr_mdat fr_next fr_pre].
      split; [exact Ha|]. split; [apply msim_add_lazy; exact Hm|]. split; assumption.
    - pose proof (add_first_sim a b ss d HT) as Ha.
      destruct (add_first a ss d) as [ta| | |]; destruct (add_first b ss d) as [tb| | |]; cbn [rrel rbind] in Ha |- *; try contradiction; try exact I.
      unfold fsimQ. cbn [fr_with fr_trafs fr_mdat fr_next fr_pre].
      split; [exact Ha|]. split; [apply msim_add_lazy; exact Hm|]. split; assumption.
    - destruct (fr_trafs a) as [|t1 ts1]; destruct (fr_trafs b) as [|t ts]; inversion HT as [|? ? ? ? Ht Hts]; subst; [exact I|].
      destruct Hts as [|t1' t' ts1' ts' Ht' Hts']; [|exact I].
      destruct Ht as (Hdt & Hh & Hr).
      destruct (tf_truns t1) as [|r1 rs1]; destruct (tf_truns t) as [|r rs]; inversion Hr as [|? ? ? ? Hq Hrs]; subst; [exact I|].
      destruct Hrs as [|r1' r' rs1' rs' Hq' Hrs']; [|exact I].
      destruct Hm as (A & B & C). unfold md_add_part. rewrite A.
      destruct (md_data (fr_mdat b)); [|exact I]. cbn [rbind rrel].
      unfold fsimQ. cbn [fr_with fr_trafs fr_mdat fr_next fr_pre].
      split.
      { constructor; [|constructor]. unfold tsimQ. cbn [tf_dt tf_hd tf_truns].
        rewrite (Q_samples _ _ Hq), Hdt. split; [reflexivity|]. split; [exact Hh|].
        constructor; [apply Q_add; exact Hq|constructor]. }
      split; [|split; assumption]. unfold msim. cbn [md_data md_parts md_lazy]. rewrite B, C. repeat split.
  Qed.

  (* Encode calls the relation survives: a parameter of the section *)
  Variable allowed : bool -> bool.
  Hypothesis enc_sim : forall opt a b c a',
    allowed opt = true -> fsimQ a b -> encode_state opt a = (c, Some a') -> fsimQ a' b.

  Definition allowed_hops (hs : list hop) : bool :=
    forallb (fun h => match h with HEnc o => allowed o | HAdd _ => true end) hs.

  (* the simulation: the fragment reached by the history with Encode calls is related to the one the additions
     alone reach (in particular: the same additions are accepted / refused, a panic on one side is one on the other) *)
  Lemma hops_sim hs : forall a b cs a',
    allowed_hops hs = true -> fsimQ a b -> run_hops a hs = (cs, Some a') ->
    exists b', run_ops b (adds hs) = (add_classes hs cs, Some b') /\ fsimQ a' b'.
  Proof.
    intros a b cs a' Hal Hs H. apply run_hops_hruns_to in H. revert b Hal Hs.
    induction H as [a|a o a1 hs cs a' E _ IH|a o hs cs a' E _ IH|a opt c a1 hs cs a' E _ IH]; intros b Hal Hs;
      cbn [allowed_hops forallb] in Hal; try (apply andb_true_iff in Hal; destruct Hal as [Hal1 Hal2]); cbn [add_classes].
    - exists b. split; [reflexivity|exact Hs].
    - change (adds (HAdd o :: hs)) with (o :: adds hs). cbn [run_ops].
      pose proof (step_sim a b o Hs) as Hst. rewrite E in Hst. destruct (step b o) as [b1| | |]; try contradiction.
      destruct (IH b1 Hal2 Hst) as (b' & -> & Hf). exists b'. split; [reflexivity|exact Hf].
    - change (adds (HAdd o :: hs)) with (o :: adds hs). cbn [run_ops].
      pose proof (step_sim a b o Hs) as Hst. rewrite E in Hst. destruct (step b o) as [b1| | |]; try contradiction.
      destruct (IH b Hal2 Hs) as (b' & -> & Hf). exists b'. split; [reflexivity|exact Hf].
    - exact (IH b Hal2 (enc_sim opt a b c a1 Hal1 Hs E)).
  Qed.
End Sim.

(* ------------------------------------------------------------------ what Encode keeps, for any such relation *)
Lemma Forall2_map_l {A B} (R : A -> B -> Prop) (f : A -> A) l1 l2 :
  (forall x y, R x y -> R (f x) y) -> Forall2 R l1 l2 -> Forall2 R (map f l1) l2.
Proof. intros Hf H. induction H; cbn [map]; constructor; auto. Qed.

Lemma Forall2_imp {A B} (R S : A -> B -> Prop) l1 l2 :
  (forall x y, R x y -> S x y) -> Forall2 R l1 l2 -> Forall2 S l1 l2.
Proof. intros Hf H. induction H; constructor; auto. Qed.

Lemma msim_touch m1 m : msim m1 m -> msim (md_size_touch m1) m.
Proof. intros H. exact H. Qed.

Section Enc.
  Variable Q : trun -> trun -> Prop.
  Variable HQ : tfhd -> tfhd -> Prop.
  Hypothesis Q_doff : forall a b z, Q a b -> Q (tr_with_doff a z) b.

  Lemma set_offsets_sim a b : fsimQ Q HQ a b -> fsimQ Q HQ (set_offsets a) b.
  Proof.
    intros (HT & Hm & Hn & Hp). unfold set_offsets.
    destruct (negb (existsb (fun r => negb (tr_won r =? 0)) (all_truns (fr_trafs a))) && (1 <? lenN (all_truns (fr_trafs a)))).
    - split; [exact HT|split; [exact Hm|split; assumption]].
    - unfold fsimQ. cbn [fr_with fr_trafs fr_mdat fr_next fr_pre]. split; [|split; [apply msim_touch; exact Hm|split; assumption]].
      apply Forall2_map_l; [|exact HT]. intros t1 t (Hdt & Hh & Hr). unfold tsimQ. cbn [tf_dt tf_hd tf_truns].
      split; [exact Hdt|]. split; [exact Hh|]. apply Forall2_map_l; [|exact Hr]. intros x y Hxy. apply Q_doff. exact Hxy.
  Qed.

  Lemma encode_tail_sim a b c a' :
    fsimQ Q HQ a b ->
    (let fr2 := set_offsets a in
     if existsb doff_unset (all_truns (fr_trafs fr2)) then (CErr, Some fr2)
     else (COk, Some (fr_with fr2 (fr_trafs fr2) (md_size_touch (fr_mdat fr2)) (fr_next fr2)))) = (c, Some a') ->
    fsimQ Q HQ a' b.
  Proof.
    intros Hs H. pose proof (set_offsets_sim a b Hs) as H2. cbn zeta in H.
    destruct (existsb doff_unset (all_truns (fr_trafs (set_offsets a)))); injection H as _ <-; [exact H2|].
    destruct H2 as (HT & Hm & Hn & Hp). unfold fsimQ. cbn [fr_with fr_trafs fr_mdat fr_next fr_pre].
    split; [exact HT|]. split; [apply msim_touch; exact Hm|]. split; assumption.
  Qed.
End Enc.

(* ------------------------------------------------------------------ instance 1: the weak relation (any Encode) *)
Definition rsim (r1 r : trun) : Prop :=
  tr_won r1 = tr_won r /\ tr_samples r1 = tr_samples r /\ has_doff r1 = has_doff r.
Definition hsim (h1 h : tfhd) : Prop := tf_track h1 = tf_track h /\ tf_has_bdo h1 = tf_has_bdo h.
Definition fsimW := fsimQ rsim hsim.

Lemma rsim_refl r : rsim r r.
Proof. repeat split. Qed.

Lemma rsim_add a b ss : rsim a b -> rsim (tr_add a ss) (tr_add b ss).
Proof. intros (A & B & C). unfold rsim, tr_add, tr_with_samples, has_doff. cbn [tr_won tr_samples tr_flags]. rewrite A, B. repeat split. exact C. Qed.

Lemma Forall2_refl_all {A} (R : A -> A -> Prop) l : (forall x, R x x) -> Forall2 R l l.
Proof. intros H. induction l; constructor; auto. Qed.

Lemma fsimW_refl fr : fsimW fr fr.
Proof.
  unfold fsimW, fsimQ. split; [|split; [apply msim_refl|split; reflexivity]].
  apply Forall2_refl_all. intros t. split; [reflexivity|]. split; [split; reflexivity|].
  apply Forall2_refl_all. apply rsim_refl.
Qed.

Lemma optimize_first_simW a b a1 : fsimW a b -> optimize_first a = Ok a1 -> fsimW a1 b.
Proof.
  intros Hs H.
  destruct (optimize_first_inv _ _ H) as [->|(t & ts & r & rs & h' & r' & Et & Er & Eo & ->)]; [exact Hs|].
  destruct Hs as (HT & Hm & Hn & Hp).
  pose proof (optimize_frame _ _ _ _ _ Eo) as (F1 & F2 & F3 & F4 & F5). cbn [fst snd] in *.
  split; [|split; [exact Hm|split; assumption]]. cbn [fr_with fr_trafs]. rewrite Et in HT.
  inversion HT as [|? tb ? tsb (Hdt & (Hh1 & Hh2) & Hr) Hts]; subst. constructor; [|exact Hts].
  split; [exact Hdt|]. split; [split; cbn [tf_hd]; congruence|]. cbn [tf_truns].
  rewrite Er in Hr. inversion Hr as [|? rb ? rsb (A & B & C) Hrs]; subst. constructor; [|exact Hrs].
  repeat split; congruence.
Qed.

Lemma enc_simW : forall opt a b c a',
  (fun _ : bool => true) opt = true -> fsimW a b -> encode_state opt a = (c, Some a') -> fsimW a' b.
Proof.
  intros opt a b c a' _ Hs H. unfold encode_state in H.
  destruct opt.
  - destruct (optimize_first a) as [a1| | |] eqn:Eo; try discriminate.
    + apply (encode_tail_sim rsim hsim) with (a := a1) (c := c); [|exact (optimize_first_simW a b a1 Hs Eo)|exact H].
      intros x y z (A & B & C). repeat split; assumption.
    + injection H as _ <-. exact Hs.
  - apply (encode_tail_sim rsim hsim) with (a := a) (c := c); [|exact Hs|exact H].
    intros x y z (A & B & C). repeat split; assumption.
Qed.

Lemma hops_simW hs a b cs a' :
  fsimW a b -> run_hops a hs = (cs, Some a') ->
  exists b', run_ops b (adds hs) = (add_classes hs cs, Some b') /\ fsimW a' b'.
Proof.
  intros Hs H.
  apply (hops_sim rsim hsim) with (allowed := fun _ => true) (a := a); try assumption.
  - intros x y (A & _). exact A.
  - intros x y (_ & B & _). exact B.
  - intros n. apply rsim_refl.
  - apply rsim_add.
  - intros x y (A & _). exact A.
  - exact enc_simW.
  - unfold allowed_hops. apply forallb_forall. intros [o|o] _; reflexivity.
Qed.

(* ------------------------------------------------------------------ instance 2: plain Encodes keep everything but the
   data offsets (and the large-size mark) *)
Definition eqd (r1 r : trun) : Prop := tr_with_doff r1 0 = tr_with_doff r 0.
Definition fsimS := fsimQ eqd (@eq tfhd).

Lemma eqd_rsim a b : eqd a b -> rsim a b /\ tr_flags a = tr_flags b.
Proof.
  unfold eqd, tr_with_doff. intros H. injection H as E1 E2 E3 E4 E5. unfold rsim, has_doff. rewrite E2, E4, E5. repeat split.
Qed.

Lemma fsimS_refl fr : fsimS fr fr.
Proof.
  unfold fsimS, fsimQ. split; [|split; [apply msim_refl|split; reflexivity]].
  apply Forall2_refl_all. intros t. split; [reflexivity|]. split; [reflexivity|].
  apply Forall2_refl_all. intros r. reflexivity.
Qed.

Lemma enc_simS : forall opt a b c a',
  negb opt = true -> fsimS a b -> encode_state opt a = (c, Some a') -> fsimS a' b.
Proof.
  intros opt a b c a' Ho Hs H. destruct opt; [discriminate|]. unfold encode_state in H.
  apply (encode_tail_sim eqd (@eq tfhd)) with (a := a) (c := c); [|exact Hs|exact H].
  intros x y z Hxy. exact Hxy.
Qed.

Lemma plain_allowed hs : plain hs = true -> allowed_hops negb hs = true.
Proof.
  unfold plain, allowed_hops. intros H. apply forallb_forall. intros h Hh.
  rewrite forallb_forall in H. specialize (H h Hh). destruct h as [o|[|]]; [reflexivity|discriminate|reflexivity].
Qed.

Lemma hops_simS hs a b cs a' :
  plain hs = true -> fsimS a b -> run_hops a hs = (cs, Some a') ->
  exists b', run_ops b (adds hs) = (add_classes hs cs, Some b') /\ fsimS a' b'.
Proof.
  intros Hp Hs H.
  apply (hops_sim eqd (@eq tfhd)) with (allowed := negb) (a := a); try assumption.
  - intros x y Hxy. exact (proj1 (proj1 (eqd_rsim x y Hxy))).
  - intros x y Hxy. exact (proj1 (proj2 (proj1 (eqd_rsim x y Hxy)))).
  - intros n. reflexivity.
  - intros x y ss Hxy. unfold eqd, tr_add, tr_with_samples, tr_with_doff in *. cbn [tr_version tr_flags tr_fsf tr_samples tr_won] in *.
    injection Hxy as E1 E2 E3 E4 E5. rewrite E1, E2, E3, E4, E5. reflexivity.
  - intros x y ->. reflexivity.
  - exact enc_simS.
Qed.

Lemma fsimS_W a b : fsimS a b -> fsimW a b.
Proof.
  intros (HT & R). split; [|exact R]. eapply Forall2_imp; [|exact HT].
  intros t1 t (Hdt & Hh & Hr). split; [exact Hdt|]. split; [rewrite Hh; split; reflexivity|].
  eapply Forall2_imp; [|exact Hr]. intros x y Hxy. exact (proj1 (eqd_rsim x y Hxy)).
Qed.

