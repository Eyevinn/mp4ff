(* C05RoundProofs.v — composition: history -> encode (optimise, data offsets) -> decoded view ->
   GetFullSamples gives back the full samples added to each track (structure level). *)
From Coq Require Import Permutation.
From V.lib Require Import Base.
From V.c05 Require Import C05Model C05FragModel C05OptProofs C05HistProofs C05OffProofs C05GhostProofs C05ReadProofs.

(* ------------------------------------------------------------------ the runs of one track, oldest first *)
Fixpoint specs_of (T : N) (g : fruns) : list (N * list fullsample) :=
  match g with
  | [] => []
  | (T', l) :: rest => specs_of T rest ++ (if T' =? T then [(lenN rest, l)] else [])
  end.

Definition canon_of (p : N * list fullsample) : trun := canon (fst p) (map fs_s (snd p)).

Lemma mk_truns_specs T g : mk_truns T (runs_of g) = map canon_of (specs_of T g).
Proof.
  induction g as [|[T' l] rest IH]; cbn [runs_of map mk_truns specs_of fst snd]; [reflexivity|].
  fold (runs_of rest). rewrite map_app, IH, lenN_runs_of. destruct (T' =? T); reflexivity.
Qed.

Lemma specs_fulls T g : flat_map snd (specs_of T g) = track_fulls T g.
Proof.
  induction g as [|[T' l] rest IH]; cbn [specs_of track_fulls]; [reflexivity|].
  rewrite flat_map_app, IH. destruct (T' =? T); cbn [flat_map snd]; rewrite ?app_nil_r; reflexivity.
Qed.

Definition sized (g : fruns) : Prop := Forall (fun p => Forall sized_f (snd p)) g.

Lemma specs_sized T g : sized g -> Forall (fun p => Forall sized_f (snd p)) (specs_of T g).
Proof.
  induction 1 as [|[T' l] rest Hl _ IH]; cbn [specs_of]; [constructor|].
  apply Forall_app. split; [exact IH|]. destruct (T' =? T); repeat constructor. exact Hl.
Qed.

Lemma all_data_app a b : all_data (a ++ b) = all_data b ++ all_data a.
Proof.
  induction a as [|[T l] a IH]; cbn [all_data app]; [rewrite app_nil_r; reflexivity|].
  rewrite IH, app_assoc. reflexivity.
Qed.

Lemma sizes_sum_sized l : Forall sized_f l -> sizes_sum (map fs_s l) = lenN (flat_map fs_data l).
Proof.
  induction 1 as [|f l Hf _ IH]; [reflexivity|]. unfold sizes_sum in *. cbn [map sumN flat_map].
  rewrite lenN_app, IH. unfold sized_f in Hf. rewrite Hf. reflexivity.
Qed.

Lemma tsum_prs_sized g : sized g -> tsum (prs (runs_of g)) = lenN (all_data g).
Proof.
  induction 1 as [|[T l] rest Hl _ IH]; [reflexivity|].
  cbn [runs_of map prs tsum all_data fst snd]. fold (runs_of rest).
  rewrite lenN_app, IH, sizes_sum_sized by exact Hl. lia.
Qed.

Lemma wsum_all_lt P k : Forall (fun p => fst p < k) P -> wsum P k = tsum P.
Proof.
  induction 1 as [|[w z] t Hw _ IH]; cbn [wsum tsum]; [reflexivity|]. cbn [fst] in Hw.
  destruct (w <? k) eqn:E; [|apply N.ltb_ge in E; lia]. rewrite IH. reflexivity.
Qed.

Lemma wsum_prs_newer newer tail k :
  k <= lenN tail -> wsum (prs (newer ++ tail)) k = wsum (prs tail) k.
Proof.
  intros Hk. induction newer as [|[T l] n IH]; [reflexivity|].
  cbn [app prs wsum]. destruct (lenN (n ++ tail) <? k) eqn:E.
  - apply N.ltb_lt in E. rewrite lenN_app in E. lia.
  - rewrite IH. reflexivity.
Qed.

Lemma run_pos_at newer T l rest :
  sized rest ->
  run_pos (runs_of (newer ++ (T, l) :: rest)) (lenN rest) = lenN (all_data rest).
Proof.
  intros Hs. unfold run_pos, runs_of. rewrite map_app. cbn [map fst snd]. fold (runs_of rest). fold (runs_of newer).
  rewrite wsum_prs_newer by (rewrite lenN_cons, lenN_runs_of; lia).
  cbn [prs wsum]. rewrite lenN_runs_of, N.ltb_irrefl. cbn [N.add].
  rewrite wsum_all_lt; [apply tsum_prs_sized; exact Hs|].
  rewrite <- (lenN_runs_of rest). apply prs_wons_lt.
Qed.

Lemma specs_placed T : forall g newer,
  sized g ->
  Forall (placed (all_data (newer ++ g)) (runs_of (newer ++ g))) (specs_of T g).
Proof.
  induction g as [|[T' l] rest IH]; intros newer Hs; cbn [specs_of]; [constructor|].
  inversion Hs as [|? ? Hl Hs']; subst. apply Forall_app. split.
  - specialize (IH (newer ++ [(T', l)]) Hs'). rewrite <- app_assoc in IH. exact IH.
  - destruct (T' =? T); [|constructor]. constructor; [|constructor].
    exists (all_data rest), (all_data newer). cbn [fst snd]. split.
    + rewrite all_data_app. cbn [all_data]. rewrite <- app_assoc. reflexivity.
    + symmetry. apply run_pos_at. exact Hs'.
Qed.

(* ------------------------------------------------------------------ retime over the runs of a track *)
Lemma retime_chain_flat specs : forall t, t < 18446744073709551616 ->
  retime_chain t specs = retime t (flat_map snd specs).
Proof.
  induction specs as [|p specs IH]; intros t Ht; cbn [retime_chain flat_map]; [reflexivity|].
  rewrite retime_app by exact Ht. rewrite IH; [reflexivity|]. unfold u64. apply N.mod_lt. discriminate.
Qed.

(* ------------------------------------------------------------------ the fragment after optimisation *)
(* a trun of the encoded fragment vs the trun the history built; h1 is the (possibly optimised) tfhd *)
Definition ropt (h1 : tfhd) (r1 r : trun) : Prop :=
  tr_won r1 = tr_won r /\ tr_samples r1 = tr_samples r /\ has_doff r1 = has_doff r /\
  forall tx, resolve h1 tx (wire_trun r1) = tr_samples r.

Definition topt (t1 t : traf) : Prop :=
  tf_dt t1 = tf_dt t /\ track_of t1 = track_of t /\ tf_has_bdo (tf_hd t1) = tf_has_bdo (tf_hd t) /\
  Forall2 (ropt (tf_hd t1)) (tf_truns t1) (tf_truns t).

Lemma Forall2_refl_in {A} (R : A -> A -> Prop) l : (forall x, In x l -> R x x) -> Forall2 R l l.
Proof.
  induction l as [|a l IH]; intros H; constructor; [apply H; left; reflexivity|].
  apply IH. intros x Hx. apply H. right. exact Hx.
Qed.

Lemma ropt_present h r : all_present r = true -> ropt h r r.
Proof. intros H. repeat split. intros tx. apply resolve_all_present. exact H. Qed.

Lemma topt_refl t : Forall (fun r => all_present r = true) (tf_truns t) -> topt t t.
Proof.
  intros H. repeat split. apply Forall2_refl_in. intros r Hr. apply ropt_present.
  rewrite Forall_forall in H. apply H. exact Hr.
Qed.

Lemma canon_present k ss : all_present (canon k ss) = true.
Proof. reflexivity. Qed.

Lemma ginv_present tracks g fr :
  ginv tracks g fr -> Forall (fun t => Forall (fun r => all_present r = true) (tf_truns t)) (fr_trafs fr).
Proof.
  intros ((_ & _ & Hf) & _). eapply Forall_impl; [|exact Hf]. cbn beta. intros t Ht.
  rewrite Ht, mk_truns_specs. apply Forall_forall. intros r Hr. apply in_map_iff in Hr.
  destruct Hr as (p & <- & _). apply canon_present.
Qed.

Definition same_rest (a b : frag) : Prop :=
  fr_mdat a = fr_mdat b /\ fr_pre a = fr_pre b /\ fr_moofx a = fr_moofx b /\ fr_post a = fr_post b /\
  fr_next a = fr_next b.

(* OptimizeTfhdTrun is tried on the first trun of the first traf only *)
Lemma optimize_first_inv fr fr1 :
  optimize_first fr = Ok fr1 ->
  fr1 = fr \/
  exists t ts r rs h' r',
    fr_trafs fr = t :: ts /\ tf_truns t = r :: rs /\ optimize (tf_hd t) r = Ok (h', r') /\
    fr1 = fr_with fr (mkTraf h' (tf_dt t) (r' :: rs) (tf_extra t) :: ts) (fr_mdat fr) (fr_next fr).
Proof.
  unfold optimize_first. destruct (fr_trafs fr) as [|t ts]; [intros [= <-]; left; reflexivity|].
  destruct (tf_truns t) as [|r rs] eqn:Er; [intros [= <-]; left; reflexivity|].
  destruct (optimize (tf_hd t) r) as [[h' r']| | |] eqn:Eo; try discriminate. intros [= <-].
  right. exists t, ts, r, rs, h', r'. auto.
Qed.

(* whatever the truns look like, as long as they carry all four per-sample fields *)
Lemma opt_first_topt fr (opt : bool) fr1 :
  Forall (fun t => Forall (fun r => all_present r = true) (tf_truns t)) (fr_trafs fr) ->
  (if opt then optimize_first fr else Ok fr) = Ok fr1 ->
  same_rest fr1 fr /\ Forall2 topt (fr_trafs fr1) (fr_trafs fr).
Proof.
  intros Hp H.
  assert (Hrefl : Forall2 topt (fr_trafs fr) (fr_trafs fr)).
  { apply Forall2_refl_in. intros t Ht. apply topt_refl. rewrite Forall_forall in Hp. apply Hp. exact Ht. }
  assert (H0 : fr1 = fr -> same_rest fr1 fr /\ Forall2 topt (fr_trafs fr1) (fr_trafs fr)) by (intros ->; split; [repeat split|exact Hrefl]).
  destruct opt; [|injection H as <-; auto].
  destruct (optimize_first_inv _ _ H) as [E|(t & ts & r & rs & h' & r' & Et & Er & Eo & ->)]; [auto|].
  split; [repeat split|]. cbn [fr_with fr_trafs]. rewrite Et in *.
  inversion Hrefl as [|? ? ? ? _ Hts]; subst. inversion Hp as [|? ? Hpt _]; subst.
  rewrite Er in Hpt. inversion Hpt as [|? ? Hpr Hprs]; subst.
  pose proof (optimize_frame _ _ _ _ _ Eo) as (F1 & F2 & F3 & F4 & F5). cbn [fst snd] in *.
  constructor; [|exact Hts].
  unfold topt, track_of. cbn [tf_dt tf_hd tf_truns]. rewrite Er. repeat split; try assumption.
  constructor.
  - repeat split; try assumption. intros tx.
    rewrite (optimize_preserves_resolve _ _ tx _ _ Eo). apply resolve_all_present. exact Hpr.
  - apply Forall2_refl_in. intros x Hx. apply ropt_present. rewrite Forall_forall in Hprs. apply Hprs. exact Hx.
Qed.

Lemma opt_first_props tracks g fr (opt : bool) fr1 :
  ginv tracks g fr ->
  (if opt then optimize_first fr else Ok fr) = Ok fr1 ->
  same_rest fr1 fr /\ Forall2 topt (fr_trafs fr1) (fr_trafs fr).
Proof. intros Hi. apply opt_first_topt. exact (ginv_present tracks g fr Hi). Qed.

Lemma pr_all_truns ts1 ts : Forall2 topt ts1 ts -> map pr (all_truns ts1) = map pr (all_truns ts).
Proof.
  induction 1 as [|t1 t ts1 ts (_ & _ & _ & Hr) _ IH]; [reflexivity|].
  unfold all_truns in *. cbn [flat_map]. rewrite !map_app, IH. f_equal.
  clear -Hr. induction Hr as [|r1 r l1 l (Hw & Hs & _) _ IHr]; [reflexivity|].
  cbn [map]. rewrite IHr. f_equal. unfold pr, size_of_data. rewrite Hw, Hs. reflexivity.
Qed.

Lemma all_truns_perm tracks g fr :
  NoDup tracks -> ginv tracks g fr ->
  Permutation (map pr (all_truns (fr_trafs fr))) (prs (runs_of g)).
Proof.
  intros Hnd (Hm & Htr & Hn & _). rewrite (all_truns_multi fr (runs_of g) Hm), Htr.
  apply truns_perm_prs; [exact Hnd|].
  unfold runs_of. apply Forall_forall. intros p Hp. apply in_map_iff in Hp. destruct Hp as (q & <- & Hq).
  cbn [fst]. unfold nonempty_in in Hn. rewrite Forall_forall in Hn. exact (proj1 (Hn q Hq)).
Qed.

(* ------------------------------------------------------------------ Fragment.Encode after the optimisation step *)
(* MdatBox.Size() through Fragment.Encode's final loop *)
Definition touch (fr : frag) : frag := fr_with fr (fr_trafs fr) (md_size_touch (fr_mdat fr)) (fr_next fr).

Lemma encode_frag_inv opt fr fe :
  encode_frag opt fr = Ok fe ->
  exists fr1, (if opt then optimize_first fr else Ok fr) = Ok fr1 /\ fe = touch (set_offsets fr1).
Proof.
  unfold encode_frag. destruct (if opt then optimize_first fr else Ok fr) as [fr1| | |]; try discriminate. cbn [rbind].
  destruct (fr_trafs (set_offsets fr1)) as [|t ts] eqn:Et; try discriminate.
  destruct (existsb doff_unset (tf_truns t)); try discriminate.
  destruct (existsb doff_unset (all_truns ts)); try discriminate. intros [= <-]. exists fr1. split; [reflexivity|].
  unfold touch. rewrite Et. reflexivity.
Qed.

(* sizes do not depend on data offsets *)
Lemma moof_size_with_offsets fr f m n : moof_size (fr_with fr (with_offsets fr f) m n) = moof_size fr.
Proof.
  unfold moof_size, with_offsets. cbn [fr_with fr_trafs fr_moofx]. f_equal. f_equal. f_equal.
  rewrite map_map. apply map_ext. intros t. unfold traf_size. cbn [tf_hd tf_dt tf_truns tf_extra].
  rewrite map_map. reflexivity.
Qed.

Lemma md_touch_idem m : md_size_touch (md_size_touch m) = md_size_touch m.
Proof.
  unfold md_size_touch, md_payload, md_data_length. cbn [md_data md_parts md_lazy md_large].
  f_equal. destruct (md_large m); cbn [orb]; [reflexivity|]. apply orb_diag.
Qed.

Lemma moof_size_pos fr : 0 < moof_size fr.
Proof. unfold moof_size. lia. Qed.

(* the sizes Fragment.Encode writes are those of the fragment it is given, whether or not SetTrunDataOffsets returns early *)
Lemma encoded_sizes fr :
  moof_size (touch (set_offsets fr)) = moof_size fr /\
  fr_mdat (touch (set_offsets fr)) = md_size_touch (fr_mdat fr).
Proof.
  destruct (set_offsets_or fr) as [->|[f ->]]; [split; reflexivity|].
  split; [exact (moof_size_with_offsets fr f _ _)|apply md_touch_idem].
Qed.

Lemma optimize_first_frame (opt : bool) fr fr1 : (if opt then optimize_first fr else Ok fr) = Ok fr1 -> xframe fr1 fr.
Proof.
  destruct opt; [|intros [= <-]; apply xframe_refl]. intros H.
  destruct (optimize_first_inv _ _ H) as [->|(t & ts & r & rs & h' & r' & Et & _ & _ & ->)]; [apply xframe_refl|].
  apply xframe_with. rewrite Et. reflexivity.
Qed.

Lemma encode_frag_frame opt fr fe : encode_frag opt fr = Ok fe -> xframe fe fr.
Proof.
  intros H. destruct (encode_frag_inv _ _ _ H) as (fr1 & E1 & ->).
  apply (xframe_trans _ (set_offsets fr1)); [repeat split|]. apply (xframe_trans _ fr1); [apply set_offsets_frame|].
  exact (optimize_first_frame opt fr fr1 E1).
Qed.

(* the mdat of the encoded fragment has the data, parts and lazy size of the fragment that was built *)
Lemma encode_frag_mdat opt fr fe : encode_frag opt fr = Ok fe ->
  md_lazy (fr_mdat fe) = md_lazy (fr_mdat fr) /\ md_data (fr_mdat fe) = md_data (fr_mdat fr) /\
  md_parts (fr_mdat fe) = md_parts (fr_mdat fr).
Proof.
  intros H. destruct (encode_frag_inv _ _ _ H) as (fr1 & E1 & ->). rewrite (proj2 (encoded_sizes fr1)).
  destruct opt; [|injection E1 as <-; repeat split].
  destruct (optimize_first_inv _ _ E1) as [->|(t & ts & r & rs & h' & r' & _ & _ & _ & ->)]; repeat split.
Qed.

(* ------------------------------------------------------------------ reading back *)
Lemma find_map {A B} (p : B -> bool) (f : A -> B) l : find p (map f l) = option_map f (find (fun a => p (f a)) l).
Proof. induction l as [|a l IH]; cbn [map find option_map]; [reflexivity|]. destruct (p (f a)); [reflexivity|exact IH]. Qed.

Lemma Forall2_in_l {A B} (R : A -> B -> Prop) l1 l2 x :
  Forall2 R l1 l2 -> In x l1 -> exists y, In y l2 /\ R x y.
Proof.
  induction 1 as [|a b l1 l2 Hab _ IH]; intros Hin; [destruct Hin|].
  destruct Hin as [<-|Hin]; [exists b; split; [left; reflexivity|exact Hab]|].
  destruct (IH Hin) as (y & Hy & Hr). exists y. split; [right; exact Hy|exact Hr].
Qed.

Lemma topt_tracks ts1 ts : Forall2 topt ts1 ts -> map track_of ts1 = map track_of ts.
Proof. induction 1 as [|t1 t l1 l (_ & Ht & _) _ IH]; [reflexivity|]. cbn [map]. rewrite Ht, IH. reflexivity. Qed.

Lemma track_fulls_notin tracks T g : nonempty_in tracks g -> ~ In T tracks -> track_fulls T g = [].
Proof.
  induction 1 as [|[T' l] rest [Hin _] _ IH]; intros Hn; [reflexivity|]. cbn [track_fulls]. rewrite (IH Hn).
  cbn [fst] in Hin. destruct (T' =? T) eqn:E; [apply N.eqb_eq in E; subst; contradiction|reflexivity].
Qed.

Lemma fruns_add_sized g T f : sized g -> sized_f f -> sized (fruns_add g T f).
Proof.
  intros Hs Hf. destruct g as [|[T' l] rest]; cbn [fruns_add].
  - repeat constructor. exact Hf.
  - inversion Hs as [|? ? Hl Hr]; subst. destruct (T' =? T).
    + constructor; [|exact Hr]. cbn [snd] in *. apply Forall_app. split; [exact Hl|repeat constructor; exact Hf].
    + constructor; [repeat constructor; exact Hf|exact Hs].
Qed.

Lemma ghost_sized tracks ops : forall g,
  sized g -> Forall (fun o => sized_f (op_full o)) ops -> sized (ghost tracks g ops).
Proof.
  induction ops as [|o ops IH]; intros g Hs Ho; cbn [ghost]; [exact Hs|].
  inversion Ho as [|? ? Ho1 Ho2]; subst. destruct (op_track o) as [T|]; [|apply IH; assumption].
  destruct (existsb (N.eqb T) tracks); apply IH; try assumption. apply fruns_add_sized; assumption.
Qed.

Lemma resolve_with_doff h tx r z : resolve h tx (wire_trun (tr_with_doff r z)) = resolve h tx (wire_trun r).
Proof. reflexivity. Qed.

Lemma good_of_ropt h tx base rr (f : trun -> Z) truns1 specs :
  (forall r, f r = Z.of_N (base + run_pos rr (tr_won r))) ->
  Forall2 (ropt h) truns1 (map canon_of specs) ->
  Forall2 (good h tx base rr) (map wire_trun (map (fun r => tr_with_doff r (f r)) truns1)) specs.
Proof.
  intros Hf. revert truns1. induction specs as [|p specs IH]; intros truns1 H; inversion H as [|r1 ? l1 ? Hr Hl]; subst.
  - constructor.
  - cbn [map]. constructor; [|apply IH; exact Hl].
    destruct Hr as (Hw & Hs & Hd & Hres). unfold good.
    assert (Hdo : has_doff r1 = true) by (rewrite Hd; reflexivity).
    split; [exact Hdo|]. split.
    + cbn [wire_trun tr_doff]. change (has_doff (tr_with_doff r1 (f r1))) with (has_doff r1). rewrite Hdo.
      cbn [tr_with_doff tr_doff]. rewrite Hf, Hw. reflexivity.
    + rewrite resolve_with_doff, Hres. reflexivity.
Qed.

(* reading one traf of the decoded fragment *)
Lemma read_traf tracks g fr fr1 (d : dfrag) base otx t1 :
  ginv tracks g fr -> sized g -> Forall2 topt (fr_trafs fr1) (fr_trafs fr) ->
  df_data d = all_data g -> df_payload_abs d = df_moof_start d + base -> 0 < base ->
  df_moof_start d + base + lenN (all_data g) < 9223372036854775808 ->
  lenN (all_data g) < 4294967296 ->
  In t1 (fr_trafs fr1) ->
  let A := track_fulls (track_of t1) g in
  td_base (tfdt_of A) < 18446744073709551616 ->
  frag_full_samples (tf_hd t1) otx
    (map wire_trun (map (fun r => tr_with_doff r (Z.of_N (base + run_pos (runs_of g) (tr_won r)))) (tf_truns t1)))
    (td_base (tf_dt t1)) d
  = Ok (retime (td_base (tfdt_of A)) A).
Proof.
  intros (Hm & Htr & Hn & Hf & _) Hs HT Hdd Hpa Hb0 Hbig H32 Hin1 A Hbt.
  destruct (Forall2_in_l _ _ _ _ HT Hin1) as (t & Hin & (Hdt & Htk & Hbdo & Hro)).
  rewrite Forall_forall in Hf. destruct (Hf t Hin) as [Hhd Htd].
  destruct Hm as (_ & _ & Hft). rewrite Forall_forall in Hft. pose proof (Hft t Hin) as Htruns.
  fold (track_of t) in Htruns. rewrite mk_truns_specs in Htruns.
  unfold A in *. rewrite Htk in *.
  rewrite (ffs_spec (tf_hd t1) otx d base (runs_of g)) with (specs := specs_of (track_of t) g).
  - rewrite retime_chain_flat, specs_fulls; [|rewrite Hdt, Htd; exact Hbt].
    rewrite Hdt, Htd. reflexivity.
  - rewrite Hbdo, Hhd. reflexivity.
  - exact Hpa.
  - exact Hb0.
  - rewrite Hdd. exact Hbig.
  - rewrite Hdd. exact H32.
  - apply good_of_ropt; [intros r; reflexivity|]. rewrite <- Htruns. exact Hro.
  - rewrite Hdd. apply (specs_placed (track_of t) g []). exact Hs.
  - apply specs_sized. exact Hs.
Qed.

(* the bytes the decoded view exposes: the caller's when the mdat is lazy, the written data otherwise *)
Definition view_data (fr : frag) (lz : list N) : list N :=
  if 0 <? md_lazy (fr_mdat fr) then lz else md_written (fr_mdat fr).

(* the track GetFullSamples reads: trex's, and with a nil trex the first traf's *)
Definition picks (otx : option trex) (tracks : list N) (T : N) : Prop :=
  match otx with Some tx => T = tx_track tx | None => exists rest, tracks = T :: rest end.

(* The round trip in its general form.  b is the fragment the additions build (ginv); fr1 is what Fragment.Encode
   finds after its optimisation step: any fragment whose truns are those of b up to topt (flag word, tfhd defaults and
   stale data offsets may differ) and whose view exposes the bytes of b; nothing else of fr1 matters.  The data offsets
   SetTrunDataOffsets writes into fr1 then lead GetFullSamples to the samples of every run. *)
Lemma roundtrip_core tracks g b fr1 lz pos0 otx T :
  NoDup tracks -> ginv tracks g b -> sized g ->
  Forall2 topt (fr_trafs fr1) (fr_trafs b) -> view_data fr1 lz = all_data g ->
  let fe := touch (set_offsets fr1) in
  let A := track_fulls T g in
  moof_size fe + md_header_size (fr_mdat fe) + lenN (all_data g) < 2147483648 ->
  pos0 + fr_pre fe < 4611686018427387904 ->
  picks otx tracks T ->
  td_base (tfdt_of A) < 18446744073709551616 ->
  get_full_samples (decoded_view fe pos0 lz) otx = Ok (retime (td_base (tfdt_of A)) A).
Proof.
  intros Hnd Hi Hs HT Hv fe A Hguard Hpos Hpick Hbt.
  destruct (encoded_sizes fr1) as [Ems Emd]. fold fe in Ems, Emd.
  set (base := moof_size fr1 + md_header_size (md_size_touch (fr_mdat fr1))).
  assert (Hbase : moof_size fe + md_header_size (fr_mdat fe) = base) by (rewrite Ems, Emd; reflexivity).
  assert (Hso : set_offsets fr1 = fr_with fr1 (with_offsets fr1 (fun r => Z.of_N (base + run_pos (runs_of g) (tr_won r))))
                                   (md_size_touch (fr_mdat fr1)) (fr_next fr1)).
  { apply set_offsets_runs; [|rewrite tsum_prs_sized by exact Hs; fold base; lia].
    rewrite (pr_all_truns _ _ HT). apply (all_truns_perm tracks); assumption. }
  set (d := decoded_view fe pos0 lz).
  assert (Etrafs : df_trafs d = map (fun t => mkTraf (tf_hd t) (tf_dt t)
                     (map wire_trun (map (fun r => tr_with_doff r (Z.of_N (base + run_pos (runs_of g) (tr_won r)))) (tf_truns t)))
                     (tf_extra t)) (fr_trafs fr1)).
  { unfold d, fe. rewrite Hso. cbn [decoded_view touch fr_with fr_trafs df_trafs]. unfold with_offsets. rewrite map_map. reflexivity. }
  assert (Hdd : df_data d = all_data g) by (rewrite <- Hv; unfold d, view_data; cbn [decoded_view df_data]; rewrite Emd; reflexivity).
  assert (Hpa : df_payload_abs d = df_moof_start d + base) by (unfold d; cbn [decoded_view df_payload_abs df_moof_start]; lia).
  assert (Hms : df_moof_start d = pos0 + fr_pre fe) by reflexivity.
  (* every traf of track T reads back A *)
  assert (R : forall t1, In t1 (fr_trafs fr1) -> track_of t1 = T ->
                frag_full_samples (tf_hd t1) otx
                  (map wire_trun (map (fun r => tr_with_doff r (Z.of_N (base + run_pos (runs_of g) (tr_won r)))) (tf_truns t1)))
                  (td_base (tf_dt t1)) d = Ok (retime (td_base (tfdt_of A)) A)).
  { intros t1 Hin1 Et1. unfold A. rewrite <- Et1. apply (read_traf tracks g b fr1 d base otx t1); try assumption.
    - unfold base. pose proof (moof_size_pos fr1). lia.
    - rewrite Hms. lia.
    - lia.
    - rewrite Et1. exact Hbt. }
  unfold get_full_samples. rewrite Etrafs. clearbody d.
  pose proof (topt_tracks _ _ HT) as Htk. destruct Hi as (_ & Htr & Hn & _). rewrite Htr in Htk.
  destruct otx as [tx|]; cbn [picks] in Hpick.
  - subst T. rewrite find_map. cbn [tf_hd].
    destruct (find (fun a => tf_track (tf_hd a) =? tx_track tx) (fr_trafs fr1)) as [t1|] eqn:Efind; cbn [option_map rbind].
    + apply find_some in Efind. destruct Efind as [Hin1 Et1]. apply N.eqb_eq in Et1. exact (R t1 Hin1 Et1).
    + assert (Hnot : ~ In (tx_track tx) tracks).
      { intros Hin. rewrite <- Htk in Hin. apply in_map_iff in Hin. destruct Hin as (t1 & Ht1 & Hin1).
        pose proof (find_none _ _ Efind t1 Hin1) as Hx. cbn beta in Hx. unfold track_of in Ht1. rewrite Ht1, N.eqb_refl in Hx.
        discriminate. }
      unfold A. rewrite (track_fulls_notin tracks _ g Hn Hnot). reflexivity.
  - destruct Hpick as [rest ->]. destruct (fr_trafs fr1) as [|t1 ts1]; [discriminate|]. injection Htk as Ht1 _.
    cbn [map rbind tf_hd tf_dt tf_truns]. apply R; [left; reflexivity|exact Ht1].
Qed.

(* ... for the fragment Fragment.Encode is called on: its truns are those of b, and all of them still carry the four
   per-sample fields, so the optimisation step stays within topt *)
Lemma roundtrip_ginv tracks g b fr lz opt fe pos0 otx T :
  NoDup tracks -> ginv tracks g b -> sized g ->
  fr_trafs fr = fr_trafs b -> view_data fr lz = all_data g ->
  encode_frag opt fr = Ok fe ->
  let A := track_fulls T g in
  moof_size fe + md_header_size (fr_mdat fe) + lenN (all_data g) < 2147483648 ->
  pos0 + fr_pre fe < 4611686018427387904 ->
  picks otx tracks T ->
  td_base (tfdt_of A) < 18446744073709551616 ->
  get_full_samples (decoded_view fe pos0 lz) otx = Ok (retime (td_base (tfdt_of A)) A).
Proof.
  intros Hnd Hi Hs Etr Hv Henc. destruct (encode_frag_inv _ _ _ Henc) as (fr1 & E1 & ->).
  destruct (opt_first_topt fr opt fr1) as ((Em & _) & HT); [rewrite Etr; exact (ginv_present tracks g b Hi)|exact E1|].
  apply (roundtrip_core tracks g b fr1); try assumption; [rewrite <- Etr; exact HT|].
  unfold view_data. rewrite Em. exact Hv.
Qed.

Lemma ghost_ginv tracks ops cs fr0 fr :
  NoDup tracks -> N.of_nat (length ops) < 4294967296 -> forallb is_full_to ops = true ->
  ginv tracks [] fr0 -> run_ops fr0 ops = (cs, Some fr) -> ginv tracks (ghost tracks [] ops) fr.
Proof.
  intros Hnd Hlen Hfull H0 Hrun.
  assert (Hc0 : count [] + N.of_nat (length ops) < 4294967296) by (cbn [count]; lia).
  exact (history_ginv tracks ops [] fr0 cs fr Hnd Hc0 Hfull H0 Hrun).
Qed.

(* ------------------------------------------------------------------ statements in terms of the op list *)
(* the full samples a history adds to track T (additions to ids outside `tracks` are refused) *)
Definition added_fulls (tracks : list N) (T : N) (ops : list op) : list fullsample :=
  flat_map (fun o => match op_track o with
                     | Some T' => if (T' =? T) && existsb (N.eqb T') tracks then [op_full o] else []
                     | None => []
                     end) ops.

Lemma track_fulls_ghost tracks T ops : forall g,
  track_fulls T (ghost tracks g ops) = track_fulls T g ++ added_fulls tracks T ops.
Proof.
  induction ops as [|o ops IH]; intros g; cbn [ghost added_fulls flat_map]; [rewrite app_nil_r; reflexivity|].
  fold (added_fulls tracks T ops). destruct (op_track o) as [T'|]; [|apply IH].
  destruct (existsb (N.eqb T') tracks).
  - rewrite IH, track_fulls_add, andb_true_r. destruct (T' =? T); rewrite <- ?app_assoc; reflexivity.
  - rewrite andb_false_r. apply IH.
Qed.

Lemma all_data_ghost tracks ops : forall g,
  all_data (ghost tracks g ops) =
  all_data g ++ flat_map (fun o => match op_track o with
                                   | Some T' => if existsb (N.eqb T') tracks then op_data o else []
                                   | None => []
                                   end) ops.
Proof.
  induction ops as [|o ops IH]; intros g; cbn [ghost flat_map]; [rewrite app_nil_r; reflexivity|].
  destruct (op_track o) as [T'|]; [|apply IH].
  destruct (existsb (N.eqb T') tracks); [|apply IH].
  rewrite IH, all_data_add. cbn [op_full fs_data]. rewrite <- app_assoc. reflexivity.
Qed.

(* decode times consistent with the durations: what GetFullSamples can reproduce *)
Definition consistent (l : list fullsample) : Prop :=
  match l with [] => True | f :: _ => fs_dts f < 18446744073709551616 /\ retime (fs_dts f) l = l end.

Lemma retime_consistent A :
  consistent A -> td_base (tfdt_of A) < 18446744073709551616 /\ retime (td_base (tfdt_of A)) A = A.
Proof. destruct A as [|f l]; [intros _; split; [cbn; lia|reflexivity]|]. intros H. exact H. Qed.

(* the round trip for a history of AddFullSampleToTrack on a fragment b0 without samples; what is encoded is any fragment
   fr with the truns of the fragment b the history builds and a view that exposes the same bytes (fr = b, lz = [] for
   the history itself) *)
Lemma roundtrip_multi_ops tracks ops cs b0 b fr lz opt fe pos0 otx T :
  NoDup tracks -> N.of_nat (length ops) < 4294967296 -> forallb is_full_to ops = true ->
  Forall (fun o => sized_f (op_full o)) ops ->
  ginv tracks [] b0 -> run_ops b0 ops = (cs, Some b) ->
  fr_trafs fr = fr_trafs b -> view_data fr lz = view_data b [] ->
  encode_frag opt fr = Ok fe ->
  moof_size fe + md_header_size (fr_mdat fe) + lenN (md_data (fr_mdat b)) < 2147483648 ->
  pos0 + fr_pre fe < 4611686018427387904 ->
  picks otx tracks T -> consistent (added_fulls tracks T ops) ->
  get_full_samples (decoded_view fe pos0 lz) otx = Ok (added_fulls tracks T ops).
Proof.
  intros Hnd Hlen Hfull Hsz H0 Hrun Etr Hv Henc Hguard Hpos Hpick Hcons.
  pose proof (ghost_ginv tracks ops cs b0 b Hnd Hlen Hfull H0 Hrun) as Hi.
  pose proof Hi as (_ & _ & _ & _ & Hdat & Hpar & Hlaz). unfold view_data at 2, md_written in Hv.
  rewrite Hlaz, Hpar, Hdat in Hv. rewrite Hdat in Hguard.
  pose proof (track_fulls_ghost tracks T ops []) as HA. cbn [track_fulls app] in HA.
  destruct (retime_consistent _ Hcons) as [Hbt Hre]. rewrite <- HA in Hbt, Hre.
  assert (Hs : sized (ghost tracks [] ops)) by (apply ghost_sized; [constructor|exact Hsz]).
  rewrite (roundtrip_ginv tracks _ b fr lz opt fe pos0 otx T Hnd Hi Hs Etr Hv Henc Hguard Hpos Hpick Hbt).
  rewrite Hre, HA. reflexivity.
Qed.

(* data offsets and tfdt of the fragment a history builds (before encoding) *)
Lemma offsets_multi tracks ops cs fr0 fr :
  NoDup tracks -> N.of_nat (length ops) < 4294967296 -> forallb is_full_to ops = true ->
  Forall (fun o => sized_f (op_full o)) ops ->
  ginv tracks [] fr0 -> run_ops fr0 ops = (cs, Some fr) ->
  let g := ghost tracks [] ops in
  let rr := runs_of g in
  let m := md_size_touch (fr_mdat fr) in
  let base := moof_size fr + md_header_size m in
  base + lenN (md_data (fr_mdat fr)) < 2147483648 ->
  set_offsets fr = fr_with fr (with_offsets fr (fun r => Z.of_N (base + run_pos rr (tr_won r)))) m (fr_next fr) /\
  md_data (fr_mdat fr) = all_data g /\
  forall t, In t (fr_trafs fr) ->
    tf_truns t = map canon_of (specs_of (track_of t) g) /\
    Forall (placed (md_data (fr_mdat fr)) rr) (specs_of (track_of t) g) /\
    tf_dt t = tfdt_of (added_fulls tracks (track_of t) ops).
Proof.
  intros Hnd Hlen Hfull Hsz H0 Hrun g rr m base Hguard.
  pose proof (ghost_ginv tracks ops cs fr0 fr Hnd Hlen Hfull H0 Hrun) as Hi. fold g in Hi.
  assert (Hs : sized g) by (apply ghost_sized; [constructor|exact Hsz]).
  pose proof (all_truns_perm tracks g fr Hnd Hi) as Hperm.
  destruct Hi as (Hm & Htr & Hn & Hf & Hdat & Hpar & Hlaz).
  split; [|split; [exact Hdat|]].
  - apply set_offsets_runs; [exact Hperm|]. unfold rr. rewrite tsum_prs_sized by exact Hs.
    rewrite <- Hdat. exact Hguard.
  - intros t Hin. destruct Hm as (_ & _ & Hft). rewrite Forall_forall in Hft, Hf.
    split; [rewrite (Hft t Hin); apply mk_truns_specs|]. split.
    + rewrite Hdat. apply (specs_placed (track_of t) g []). exact Hs.
    + destruct (Hf t Hin) as [_ Hd]. rewrite Hd. unfold g. rewrite track_fulls_ghost. reflexivity.
Qed.

(* ------------------------------------------------------------------ extra boxes do not matter for the invariant *)
Lemma set_extras_Forall (P : traf -> Prop) :
  (forall t e, P t -> P (mkTraf (tf_hd t) (tf_dt t) (tf_truns t) e)) ->
  forall ts exs, Forall P ts -> Forall P (set_extras ts exs).
Proof.
  intros HP. induction ts as [|t ts IH]; intros exs H; [destruct exs; exact H|].
  inversion H as [|? ? Ht Hts]; subst. destruct exs as [|e exs]; [exact H|]. cbn [set_extras].
  constructor; [apply HP; exact Ht|apply IH; exact Hts].
Qed.

Lemma set_extras_map {B} (f : traf -> B) :
  (forall t e, f (mkTraf (tf_hd t) (tf_dt t) (tf_truns t) e) = f t) ->
  forall ts exs, map f (set_extras ts exs) = map f ts.
Proof.
  intros Hf. induction ts as [|t ts IH]; intros exs; [destruct exs; reflexivity|].
  destruct exs as [|e exs]; [reflexivity|]. cbn [set_extras map]. rewrite Hf, IH. reflexivity.
Qed.

Lemma ginv_extras tracks g fr pre mx post exs :
  ginv tracks g fr -> ginv tracks g (with_extras fr pre mx post exs).
Proof.
  intros ((Hn & Hd & Hf) & Htr & Hne & Hhd & Hdat). unfold ginv, multi_inv, with_extras.
  cbn [fr_trafs fr_next fr_mdat]. repeat split; try tauto.
  - rewrite set_extras_map; [exact Hd|reflexivity].
  - apply set_extras_Forall; [|exact Hf]. intros t e H. exact H.
  - rewrite set_extras_map; [exact Htr|reflexivity].
  - apply set_extras_Forall; [|exact Hhd]. intros t e H. exact H.
Qed.

Lemma create_multi_extras_ginv tracks pre mx post exs :
  NoDup tracks -> ginv tracks [] (with_extras (create_multi tracks) pre mx post exs).
Proof. intros H. apply ginv_extras, create_multi_ginv. exact H. Qed.

(* ------------------------------------------------------------------ single-track fragments *)
(* CreateFragment(seq,T) + extra boxes, then AddFullSample / AddFullSampleToTrack *)
Definition sinv (T : N) (fl : list fullsample) (fr : frag) : Prop :=
  (exists ex, fr_trafs fr = [mkTraf (create_tfhd T) (tfdt_of fl) [canon 0 (map fs_s fl)] ex]) /\
  fr_next fr = 1 /\
  md_data (fr_mdat fr) = flat_map fs_data fl /\ md_parts (fr_mdat fr) = [] /\ md_lazy (fr_mdat fr) = 0.

Lemma create_fragment_sinv T pre mx post exs : sinv T [] (with_extras (create_fragment T) pre mx post exs).
Proof.
  unfold sinv, with_extras. cbn [create_fragment fr_trafs fr_next fr_mdat md_data md_parts md_lazy].
  repeat split. destruct exs as [|e exs]; cbn [set_extras]; eexists; reflexivity.
Qed.

Lemma tfdt_of_snoc fl s d data :
  lenN fl < 4294967296 ->
  (if u32 (lenN (map fs_s fl)) =? 0 then set_base d else tfdt_of fl) = tfdt_of (fl ++ [mkFull s d data]).
Proof.
  intros Hb. replace (lenN (map fs_s fl)) with (lenN fl) by (unfold lenN; rewrite map_length; reflexivity).
  rewrite u32_small by exact Hb. destruct fl as [|f0 fl]; [reflexivity|].
  rewrite lenN_cons. destruct (1 + lenN fl =? 0) eqn:E; [apply N.eqb_eq in E; lia|reflexivity].
Qed.

Lemma step_sinv T fl fr o fr' :
  lenN fl < 4294967296 -> is_full o = true -> sinv T fl fr -> step fr o = Ok fr' ->
  hits T o = true /\ sinv T (fl ++ [op_full o]) fr'.
Proof.
  intros Hb Hf ((ex & Ht) & Hn & Hd & Hp & Hl) H.
  pose proof (step_single T _ _ ex fr Ht Hn o) as S. rewrite H in S. destruct S as (Hh & Hn1 & Ht1).
  destruct (step_shape _ _ _ H) as (ts & n & -> & _). cbn [fr_with fr_trafs fr_next fr_mdat] in *.
  split; [exact Hh|]. split; [exists ex|split; [exact Hn1|]].
  - rewrite Ht1. unfold single_traf, op_full. rewrite <- (tfdt_of_snoc fl (op_first_sample o) (op_dts o) (op_data o) Hb), map_app.
    destruct o; try discriminate; reflexivity.
  - rewrite flat_map_app. cbn [flat_map op_full fs_data]. rewrite app_nil_r, <- Hd.
    destruct o; try discriminate; cbn [md_step md_add_data md_set_lazy0 md_add_lazy md_data md_parts md_lazy op_data]; auto.
Qed.

Definition added1_fulls (T : N) (ops : list op) : list fullsample := map op_full (filter (hits T) ops).

Lemma history_sinv T ops : forall fl fr cs fr',
  lenN fl + N.of_nat (length ops) < 4294967296 -> forallb is_full ops = true ->
  sinv T fl fr -> run_ops fr ops = (cs, Some fr') -> sinv T (fl ++ added1_fulls T ops) fr'.
Proof.
  intros fl fr cs fr' Hb Hf Hi H. apply run_ops_runs_to in H. revert fl Hb Hf Hi.
  induction H as [fr|fr o fr1 ops cs fr' E _ IH|fr o ops cs fr' E _ IH]; intros fl Hb Hf Hi; unfold added1_fulls; cbn [filter].
  - cbn [map]. rewrite app_nil_r. exact Hi.
  - cbn [forallb length] in Hf, Hb. apply andb_true_iff in Hf. destruct Hf as [Hf1 Hf2].
    destruct (step_sinv T fl fr o fr1 ltac:(lia) Hf1 Hi E) as [Hh Hi1]. rewrite Hh. cbn [map].
    specialize (IH (fl ++ [op_full o])). rewrite <- app_assoc in IH.
    apply IH; [rewrite lenN_app; change (lenN [op_full o]) with 1; lia|assumption..].
  - cbn [forallb length] in Hf, Hb. apply andb_true_iff in Hf.
    destruct Hi as ((ex & Ht) & Hn & Hi'). pose proof (step_single T _ _ ex fr Ht Hn o) as S. rewrite E in S. rewrite S.
    apply IH; [lia|exact (proj2 Hf)|]. split; [exists ex; exact Ht|split; assumption].
Qed.

(* a single-track fragment holding at least one sample is the one-run instance of the general invariant *)
Lemma sinv_ginv T fl fr : fl <> [] -> sinv T fl fr -> ginv [T] [(T, fl)] fr.
Proof.
  intros Hne ((ex & Ht) & Hn & Hd & Hp & Hl). unfold ginv, multi_inv. rewrite Ht, Hn.
  cbn [runs_of map fst snd mk_truns track_fulls all_data app tf_hd tf_track create_tfhd tf_truns tf_dt].
  rewrite ?N.eqb_refl. cbn [app]. unfold track_of. cbn [tf_hd tf_track create_tfhd map].
  rewrite ?N.eqb_refl. cbn [app].
  repeat split; try assumption.
  - constructor; [intros []|constructor].
  - constructor; [|constructor]. cbn [tf_truns tf_hd tf_track create_tfhd]. rewrite N.eqb_refl. reflexivity.
  - constructor; [|constructor]. cbn. split; [left; reflexivity|exact Hne].
  - constructor; [|constructor]. cbn [tf_dt tf_hd tf_track create_tfhd]. rewrite N.eqb_refl. split; reflexivity.
Qed.

Lemma roundtrip_single T ops cs fr opt fe pos0 tx pre mx post exs :
  N.of_nat (length ops) < 4294967296 -> forallb is_full ops = true ->
  Forall (fun o => sized_f (op_full o)) ops ->
  run_ops (with_extras (create_fragment T) pre mx post exs) ops = (cs, Some fr) ->
  encode_frag opt fr = Ok fe ->
  added1_fulls T ops <> [] ->
  moof_size fe + md_header_size (fr_mdat fe) + lenN (md_data (fr_mdat fr)) < 2147483648 ->
  pos0 + fr_pre fe < 4611686018427387904 ->
  consistent (added1_fulls T ops) ->
  get_full_samples (decoded_view fe pos0 []) (Some tx) =
    Ok (if tx_track tx =? T then added1_fulls T ops else []).
Proof.
  intros Hlen Hfull Hsz Hrun Henc Hne Hguard Hpos Hcons.
  pose proof (history_sinv T ops [] _ cs fr ltac:(change (lenN (@nil fullsample)) with 0; lia) Hfull
                (create_fragment_sinv T pre mx post exs) Hrun) as Hsi. cbn [app] in Hsi.
  pose proof (sinv_ginv T _ fr Hne Hsi) as Hi. destruct Hsi as (_ & _ & Hdat & Hpar & Hlaz).
  assert (Hs : sized [(T, added1_fulls T ops)]).
  { constructor; [|constructor]. cbn [snd]. unfold added1_fulls. apply Forall_forall. intros f Hf.
    apply in_map_iff in Hf. destruct Hf as (o & <- & Ho). apply filter_In in Ho.
    rewrite Forall_forall in Hsz. apply Hsz. exact (proj1 Ho). }
  destruct (retime_consistent _ Hcons) as [Hbt Hre].
  rewrite (roundtrip_ginv [T] _ fr fr [] opt fe pos0 (Some tx) (tx_track tx) (ltac:(repeat constructor; intros []) : NoDup [T]) Hi Hs eq_refl).
  - cbn [track_fulls app]. rewrite (N.eqb_sym T). destruct (tx_track tx =? T); [rewrite Hre|]; reflexivity.
  - unfold view_data, md_written. rewrite Hlaz, Hpar. cbn [all_data app]. exact Hdat.
  - exact Henc.
  - cbn [all_data app]. rewrite <- Hdat. exact Hguard.
  - exact Hpos.
  - reflexivity.
  - cbn [track_fulls app]. destruct (T =? tx_track tx); [exact Hbt|cbn; lia].
Qed.
