(* C05HistProofs.v — invariants of op histories on created fragments (fold over the op list). *)
From V.lib Require Import Base.
From V.c05 Require Import C05Model C05FragModel.

(* the trun CreateTrun(k) has become after the samples ss were appended to it *)
Definition canon (k : N) (ss : list sample) : trun := mkTrun 1 3841 0 0 ss k.

Lemma canon_create k : create_trun k = canon k [].
Proof. reflexivity. Qed.

Lemma tr_add_canon k l ss : tr_add (canon k l) ss = canon k (l ++ ss).
Proof. reflexivity. Qed.

Definition op_samples (o : op) : list sample :=
  match o with
  | OFull s _ _ | OFullTo _ s _ _ | OMetaTo _ s _ | OMeta s _ => [s]
  | OMetas ss _ | OInterval _ ss _ => ss
  end.
Definition op_dts (o : op) : N :=
  match o with
  | OFull _ d _ | OFullTo _ _ d _ | OMetaTo _ _ d | OMeta _ d | OMetas _ d | OInterval d _ _ => d
  end.
Definition op_data (o : op) : list N :=
  match o with
  | OFull _ _ d | OFullTo _ _ _ d | OInterval _ _ d => d
  | _ => []
  end.
(* the track an operation addresses; None = the fragment's first (and only) track *)
Definition op_track (o : op) : option N :=
  match o with
  | OFullTo t _ _ _ | OMetaTo t _ _ => Some t
  | _ => None
  end.

Lemma u32_small x : x < 4294967296 -> u32 x = x.
Proof. intros H. unfold u32. apply N.mod_small. exact H. Qed.

Lemma u64_small x : x < 18446744073709551616 -> u64 x = x.
Proof. intros H. unfold u64. apply N.mod_small. exact H. Qed.

Lemma u64_lt x : u64 x < 18446744073709551616.
Proof. unfold u64. apply N.mod_lt. discriminate. Qed.

(* nextTrunNr - 1 in uint32 arithmetic *)
Lemma u32_pred n : n < 4294967296 -> u32 (1 + n + 4294967295) = n.
Proof.
  intros H. unfold u32. replace (1 + n + 4294967295) with (n + 1 * 4294967296) by lia.
  rewrite N.mod_add by discriminate. apply N.mod_small. exact H.
Qed.

(* ================================================================== histories as derivations *)
(* the operations of a history that returned without error *)
Fixpoint accepted (cs : list oclass) (ops : list op) : list op :=
  match cs, ops with
  | COk :: cs', o :: ops' => o :: accepted cs' ops'
  | _ :: cs', _ :: ops' => accepted cs' ops'
  | _, _ => []
  end.

(* run_ops fr ops = (cs, Some fr'): the history did not panic *)
Inductive runs_to : frag -> list op -> list oclass -> frag -> Prop :=
| RT_nil fr : runs_to fr [] [] fr
| RT_ok fr o fr1 ops cs fr' : step fr o = Ok fr1 -> runs_to fr1 ops cs fr' -> runs_to fr (o :: ops) (COk :: cs) fr'
| RT_err fr o ops cs fr' : step fr o = Err -> runs_to fr ops cs fr' -> runs_to fr (o :: ops) (CErr :: cs) fr'.

Lemma run_ops_runs_to ops : forall fr cs fr', run_ops fr ops = (cs, Some fr') <-> runs_to fr ops cs fr'.
Proof.
  induction ops as [|o ops IH]; intros fr cs fr'; cbn [run_ops].
  - split; [intros [= <- <-]; constructor|intros H; inversion H; reflexivity].
  - split.
    + destruct (step fr o) as [fr1| | |] eqn:E; try discriminate.
      * destruct (run_ops fr1 ops) as [cs1 r1] eqn:E1. intros [= <- ->]. apply IH in E1. econstructor; eassumption.
      * destruct (run_ops fr ops) as [cs1 r1] eqn:E1. intros [= <- ->]. apply IH in E1. apply RT_err; assumption.
    + intros H. inversion H as [|? ? fr1 ? cs1 ? E H1|? ? ? cs1 ? E H1]; subst; rewrite E; apply IH in H1; rewrite H1; reflexivity.
Qed.

(* what every successful addition preserves is preserved by a history *)
Lemma run_ops_inv (P : frag -> Prop) :
  (forall fr o fr', P fr -> step fr o = Ok fr' -> P fr') ->
  forall ops fr cs fr', P fr -> run_ops fr ops = (cs, Some fr') -> P fr'.
Proof.
  intros HP ops fr cs fr' H0 H. apply run_ops_runs_to in H.
  induction H as [fr|fr o fr1 ops cs fr' E _ IH|fr o ops cs fr' _ _ IH]; [exact H0|exact (IH (HP _ _ _ H0 E))|exact (IH H0)].
Qed.

(* ================================================================== AddSampleToTrack *)
(* the traf that is found keeps its tfhd and its other children *)
Lemma add_to_traf_shape t next s d :
  exists dt' truns', fst (add_to_traf t next s d) = mkTraf (tf_hd t) dt' truns' (tf_extra t).
Proof.
  unfold add_to_traf. destruct (tf_truns t) as [|r l];
    match goal with |- context [if ?c then _ else _] => destruct c end; eexists; eexists; reflexivity.
Qed.

Definition track_of (t : traf) : N := tf_track (tf_hd t).

(* the loop over the trafs changes the first traf with the track id, and only that one *)
Lemma add_to_track_trafs_some T next s d : forall ts ts' n',
  add_to_track_trafs ts T next s d = Some (ts', n') ->
  exists pre t post,
    ts = pre ++ t :: post /\ Forall (fun x => track_of x <> T) pre /\ track_of t = T /\
    ts' = pre ++ fst (add_to_traf t next s d) :: post /\ n' = snd (add_to_traf t next s d).
Proof.
  induction ts as [|t ts IH]; intros ts' n' H; cbn [add_to_track_trafs] in H; [discriminate|].
  destruct (tf_track (tf_hd t) =? T) eqn:E.
  - apply N.eqb_eq in E. destruct (add_to_traf t next s d) as [t' n1] eqn:Ea. injection H as <- <-.
    exists [], t, ts. rewrite Ea. repeat split; [constructor|exact E].
  - destruct (add_to_track_trafs ts T next s d) as [[r n1]|] eqn:Er; [|discriminate]. injection H as <- <-.
    destruct (IH _ _ eq_refl) as (pre & t0 & post & -> & F & Et & -> & ->).
    exists (t :: pre), t0, post. repeat split; [|exact Et]. constructor; [apply N.eqb_neq; exact E|exact F].
Qed.

Lemma add_to_track_trafs_none T next s d ts :
  add_to_track_trafs ts T next s d = None <-> ~ In T (map track_of ts).
Proof.
  induction ts as [|t ts IH]; cbn [add_to_track_trafs map In]; [tauto|]. fold (track_of t).
  destruct (track_of t =? T) eqn:E.
  - apply N.eqb_eq in E. destruct (add_to_traf t next s d). split; [discriminate|tauto].
  - apply N.eqb_neq in E. destruct (add_to_track_trafs ts T next s d) as [[r n]|]; [|tauto].
    split; [discriminate|]. intros H. assert (X : Some (r, n) = None) by (apply IH; tauto). discriminate.
Qed.

(* a property of every traf after the call, when the track ids are pairwise different: the traf that was found
   goes from P to P', the others (all of another track) keep theirs *)
Lemma add_to_track_trafs_Forall (P P' : traf -> Prop) T next s d ts ts' n' :
  NoDup (map track_of ts) -> add_to_track_trafs ts T next s d = Some (ts', n') ->
  (forall x, track_of x <> T -> P x -> P' x) ->
  (forall t, track_of t = T -> P t -> P' (fst (add_to_traf t next s d))) ->
  Forall P ts -> Forall P' ts'.
Proof.
  intros Hd H Hx Ht Hf. destruct (add_to_track_trafs_some _ _ _ _ _ _ _ H) as (pre & t & post & -> & Fpre & Et & -> & _).
  apply Forall_app in Hf. destruct Hf as [Hf1 Hf2]. inversion Hf2 as [|? ? Hf0 Hf3]; subst.
  rewrite map_app in Hd. cbn [map] in Hd. apply NoDup_remove_2 in Hd.
  apply Forall_app. split; [|constructor; [exact (Ht t eq_refl Hf0)|]].
  - eapply Forall_impl; [|apply (Forall_and Fpre Hf1)]. cbn beta. intros x [H1 H2]. exact (Hx x H1 H2).
  - rewrite Forall_forall in *. intros x Hin. apply Hx; [|exact (Hf3 x Hin)].
    intros Ex. apply Hd, in_or_app. right. rewrite <- Ex. apply in_map. exact Hin.
Qed.

(* ================================================================== what no addition touches *)
(* the sizes of the boxes around moof and mdat, of the other children of moof and of the trafs *)
Definition xframe (a b : frag) : Prop :=
  fr_pre a = fr_pre b /\ fr_moofx a = fr_moofx b /\ fr_post a = fr_post b /\
  map tf_extra (fr_trafs a) = map tf_extra (fr_trafs b).

Lemma xframe_refl a : xframe a a.
Proof. repeat split. Qed.

Lemma xframe_trans a b c : xframe a b -> xframe b c -> xframe a c.
Proof. intros (A1 & A2 & A3 & A4) (B1 & B2 & B3 & B4). repeat split; congruence. Qed.

Lemma xframe_with fr ts m n : map tf_extra ts = map tf_extra (fr_trafs fr) -> xframe (fr_with fr ts m n) fr.
Proof. intros H. repeat split. exact H. Qed.

Lemma add_first_extra fr ss dts ts : add_first fr ss dts = Ok ts -> map tf_extra ts = map tf_extra (fr_trafs fr).
Proof.
  unfold add_first. destruct (fr_trafs fr) as [|t ts0]; [discriminate|]. destruct (tf_truns t); [discriminate|].
  intros [= <-]. reflexivity.
Qed.

(* the mdat after an accepted operation (AddSampleInterval is accepted only while there is no monolithic data) *)
Definition md_step (m : mdat) (o : op) : mdat :=
  match o with
  | OFull _ _ d => md_add_data m d
  | OFullTo _ s _ d => md_add_data (md_set_lazy0 (md_add_lazy m (s_size s))) d
  | OMetaTo _ s _ | OMeta s _ => md_add_lazy m (s_size s)
  | OMetas ss _ => md_add_lazy m (u64 (sizes_sum ss))
  | OInterval _ _ d => mkMdat [] (md_parts m ++ [d]) (md_lazy m) (md_large m)
  end.

(* an accepted operation rebuilds the fragment from new trafs, the mdat above and a trun counter *)
Lemma step_shape fr o fr' :
  step fr o = Ok fr' ->
  exists ts n, fr' = fr_with fr ts (md_step (fr_mdat fr) o) n /\ map tf_extra ts = map tf_extra (fr_trafs fr).
Proof.
  assert (A : forall t s d fr1, add_sample_to_track fr t s d = Ok fr1 ->
              exists ts n, fr1 = fr_with fr ts (md_add_lazy (fr_mdat fr) (s_size s)) n /\
                           map tf_extra ts = map tf_extra (fr_trafs fr)).
  { unfold add_sample_to_track. intros t s d fr1.
    destruct (add_to_track_trafs (fr_trafs fr) t (fr_next fr) s d) as [[ts n]|] eqn:E; [|discriminate]. intros [= <-].
    exists ts, n. split; [reflexivity|].
    destruct (add_to_track_trafs_some _ _ _ _ _ _ _ E) as (pre & t0 & post & -> & _ & _ & -> & _).
    destruct (add_to_traf_shape t0 (fr_next fr) s d) as (dt' & truns' & ->). rewrite !map_app. reflexivity. }
  destruct o as [s d data|t s d data|t s d|s d|ss d|d ss data]; cbn [step md_step].
  - destruct (add_first fr [s] d) as [ts| | |] eqn:E; try discriminate. intros [= <-]. eauto using add_first_extra.
  - destruct (add_sample_to_track fr t s d) as [fr1| | |] eqn:E; try discriminate. intros [= <-].
    destruct (A _ _ _ _ E) as (ts & n & -> & Hx). exists ts, n. split; [reflexivity|exact Hx].
  - apply A.
  - destruct (add_first fr [s] d) as [ts| | |] eqn:E; try discriminate. intros [= <-]. eauto using add_first_extra.
  - destruct (add_first fr ss d) as [ts| | |] eqn:E; try discriminate. intros [= <-]. eauto using add_first_extra.
  - destruct (fr_trafs fr) as [|t [|t2 ts]] eqn:Et; try discriminate. destruct (tf_truns t) as [|r [|r2 rs]]; try discriminate.
    unfold md_add_part. destruct (md_data (fr_mdat fr)); try discriminate. intros [= <-]. eauto.
Qed.

Lemma md_step_large m o : md_large (md_step m o) = md_large m.
Proof. destruct o; reflexivity. Qed.

(* LargeSize is only touched by Size() *)
Lemma step_frame fr o fr' :
  step fr o = Ok fr' -> xframe fr' fr /\ md_large (fr_mdat fr') = md_large (fr_mdat fr).
Proof.
  intros H. destruct (step_shape _ _ _ H) as (ts & n & -> & Hx). split; [apply xframe_with; exact Hx|apply md_step_large].
Qed.

Lemma run_ops_frame ops fr cs fr' :
  run_ops fr ops = (cs, Some fr') -> xframe fr' fr /\ md_large (fr_mdat fr') = md_large (fr_mdat fr).
Proof.
  apply (run_ops_inv (fun f => xframe f fr /\ md_large (fr_mdat f) = md_large (fr_mdat fr))); [|split; [apply xframe_refl|reflexivity]].
  intros a o a' [X L] E. destruct (step_frame _ _ _ E) as [X1 L1]. split; [exact (xframe_trans _ _ _ X1 X)|congruence].
Qed.

(* ================================================================== single-track fragments *)
(* CreateFragment(seq, T) followed by ANY of the six operations *)
Definition hits (T : N) (o : op) : bool :=
  match op_track o with Some t => t =? T | None => true end.

Definition added1 (T : N) (ops : list op) : list sample := flat_map op_samples (filter (hits T) ops).

Definition single_inv (T : N) (l : list sample) (fr : frag) : Prop :=
  exists dt ex, fr_trafs fr = [mkTraf (create_tfhd T) dt [canon 0 l] ex] /\ fr_next fr = 1.

Lemma create_fragment_single T : single_inv T [] (create_fragment T).
Proof. exists (mkTfdt 0 0), 0. split; reflexivity. Qed.

(* the traf after the samples ss with decode time dts were appended: the tfdt is set while the trun counts as empty *)
Definition single_traf (T : N) (dt : tfdt) (l : list sample) (ex : N) (ss : list sample) (dts : N) : traf :=
  mkTraf (create_tfhd T) (if u32 (lenN l) =? 0 then set_base dts else dt) [canon 0 (l ++ ss)] ex.

Section Single.
  Variables (T : N) (dt : tfdt) (l : list sample) (ex : N) (fr : frag).
  Hypothesis Ht : fr_trafs fr = [mkTraf (create_tfhd T) dt [canon 0 l] ex].
  Hypothesis Hn : fr_next fr = 1.

  Lemma add_first_single ss dts : add_first fr ss dts = Ok [single_traf T dt l ex ss dts].
  Proof. unfold add_first. rewrite Ht. reflexivity. Qed.

  (* the loop finds the traf iff the id is T; its trun is the latest one (write-order number 0 = nextTrunNr - 1) *)
  Lemma add_sample_to_track_single t s dts :
    add_sample_to_track fr t s dts =
      if t =? T then Ok (fr_with fr [single_traf T dt l ex [s] dts] (md_add_lazy (fr_mdat fr) (s_size s)) 1) else Err.
  Proof.
    unfold add_sample_to_track. rewrite Ht, Hn. cbn [add_to_track_trafs tf_hd tf_track create_tfhd].
    rewrite (N.eqb_sym T t). destruct (t =? T); reflexivity.
  Qed.

  (* one operation: accepted exactly when it addresses T (AddSampleInterval panics on monolithic data) *)
  Lemma step_single o :
    match step fr o with
    | Ok fr' => hits T o = true /\ fr_next fr' = 1 /\ fr_trafs fr' = [single_traf T dt l ex (op_samples o) (op_dts o)]
    | Err => hits T o = false
    | _ => True
    end.
  Proof.
    destruct o as [s d data|t s d data|t s d|s d|ss d|d ss data]; cbn [step hits op_track op_samples op_dts];
      rewrite ?add_first_single, ?add_sample_to_track_single; try destruct (t =? T); cbn [rbind];
      try (repeat split; assumption).
    rewrite Ht. cbn [tf_truns]. unfold md_add_part. destruct (md_data (fr_mdat fr)); cbn [rbind]; repeat split; first [assumption|reflexivity].
  Qed.
End Single.

Lemma step_single_err T l fr o : single_inv T l fr -> step fr o = Err -> hits T o = false.
Proof. intros (dt & ex & Ht & Hn) H. pose proof (step_single T dt l ex fr Ht Hn o) as S. rewrite H in S. exact S. Qed.

(* a history: the accepted operations are those that address T, their samples are appended in order, and the tfdt
   keeps every property P that SetBaseMediaDecodeTime of the operations' decode times has *)
Lemma history_single (P : tfdt -> Prop) T ex ops : forall dt l fr cs fr',
  (forall o, In o ops -> P (set_base (op_dts o))) -> P dt ->
  fr_trafs fr = [mkTraf (create_tfhd T) dt [canon 0 l] ex] -> fr_next fr = 1 ->
  run_ops fr ops = (cs, Some fr') ->
  accepted cs ops = filter (hits T) ops /\ fr_next fr' = 1 /\
  exists dt', P dt' /\ fr_trafs fr' = [mkTraf (create_tfhd T) dt' [canon 0 (l ++ added1 T ops)] ex].
Proof.
  intros dt l fr cs fr' HP Hdt Ht Hn H. apply run_ops_runs_to in H. revert dt l HP Hdt Ht Hn.
  induction H as [fr|fr o fr1 ops cs fr' E _ IH|fr o ops cs fr' E _ IH]; intros dt l HP Hdt Ht Hn;
    unfold added1; cbn [accepted filter].
  - cbn [flat_map]. rewrite app_nil_r. eauto.
  - pose proof (step_single T dt l ex fr Ht Hn o) as S. rewrite E in S. destruct S as (Hh & Hn1 & Ht1). rewrite Hh.
    assert (Hdt1 : P (if u32 (lenN l) =? 0 then set_base (op_dts o) else dt))
      by (destruct (_ =? 0); [apply HP; left; reflexivity|exact Hdt]).
    destruct (IH _ _ (fun o' Ho' => HP o' (or_intror Ho')) Hdt1 Ht1 Hn1) as (A & B & C).
    cbn [flat_map]. rewrite app_assoc, A. auto.
  - pose proof (step_single T dt l ex fr Ht Hn o) as S. rewrite E in S. rewrite S.
    exact (IH _ _ (fun o' Ho' => HP o' (or_intror Ho')) Hdt Ht Hn).
Qed.

(* ================================================================== multi-track fragments *)
(* CreateMultiTrackFragment(seq, tracks) followed by AddFullSampleToTrack / AddSampleToTrack.
   Ghost state: the runs in REVERSE write order (latest first), each (track, samples). *)
Definition runs := list (N * list sample).

Definition runs_add (rr : runs) (T : N) (s : sample) : runs :=
  match rr with
  | (T', l) :: rest => if T' =? T then (T, l ++ [s]) :: rest else (T, [s]) :: rr
  | [] => [(T, [s])]
  end.

(* the truns of track T: one per run of T, write-order number = index of the run *)
Fixpoint mk_truns (T : N) (rr : runs) : list trun :=
  match rr with
  | [] => []
  | (T', ss) :: rest => mk_truns T rest ++ (if T' =? T then [canon (lenN rest) ss] else [])
  end.

Definition multi_inv (rr : runs) (fr : frag) : Prop :=
  fr_next fr = lenN rr /\
  NoDup (map (fun t => tf_track (tf_hd t)) (fr_trafs fr)) /\
  Forall (fun t => tf_truns t = mk_truns (tf_track (tf_hd t)) rr) (fr_trafs fr).

Lemma create_multi_tracks tracks : map track_of (fr_trafs (create_multi tracks)) = tracks.
Proof. cbn [create_multi fr_trafs]. rewrite map_map. apply map_id. Qed.

Lemma create_multi_inv tracks : NoDup tracks -> multi_inv [] (create_multi tracks).
Proof.
  intros Hd. split; [reflexivity|]. split; [rewrite create_multi_tracks; exact Hd|].
  apply Forall_forall. intros t Ht. apply in_map_iff in Ht. destruct Ht as (x & <- & _). reflexivity.
Qed.

Lemma mk_truns_won_lt T rr : Forall (fun r => tr_won r < lenN rr) (mk_truns T rr).
Proof.
  induction rr as [|[T' ss] rest IH]; cbn [mk_truns]; [constructor|]. rewrite lenN_cons.
  apply Forall_app. split.
  - eapply Forall_impl; [|exact IH]. cbn beta. intros r Hr. lia.
  - destruct (T' =? T); [|constructor]. constructor; [|constructor]. cbn [canon tr_won]. lia.
Qed.

Lemma last_in {A} (l : list A) d : l <> [] -> In (last l d) l.
Proof.
  induction l as [|a [|b t] IH]; intros H; [congruence|left; reflexivity|].
  right. apply IH. discriminate.
Qed.

(* other tracks are not affected by adding to T *)
Lemma mk_truns_add_other T T' rr s : (T' =? T) = false -> mk_truns T' (runs_add rr T s) = mk_truns T' rr.
Proof.
  intros Hne. unfold runs_add. destruct rr as [|[T0 l] rest].
  - cbn [mk_truns]. rewrite N.eqb_sym, Hne. reflexivity.
  - destruct (T0 =? T) eqn:E.
    + apply N.eqb_eq in E. subst T0. cbn [mk_truns]. rewrite N.eqb_sym, Hne. reflexivity.
    + cbn [mk_truns]. rewrite (N.eqb_sym T T'), Hne. rewrite app_nil_r. reflexivity.
Qed.

Lemma lenN_runs_add rr T s : lenN (runs_add rr T s) = lenN rr \/ lenN (runs_add rr T s) = 1 + lenN rr.
Proof.
  unfold runs_add. destruct rr as [|[T0 l] rest]; [right; reflexivity|].
  destruct (T0 =? T); rewrite !lenN_cons; auto.
Qed.

(* AddSampleToTrack on the traf of track T mirrors runs_add: the latest trun of the traf is extended when it is the
   fragment's latest (write-order number = nextTrunNr - 1), otherwise a new trun is started *)
Lemma add_to_traf_multi h dt ex rr s dts T :
  lenN rr + 1 < 4294967296 ->
  exists dt', add_to_traf (mkTraf h dt (mk_truns T rr) ex) (lenN rr) s dts
              = (mkTraf h dt' (mk_truns T (runs_add rr T s)) ex, lenN (runs_add rr T s)).
Proof.
  intros Hb. unfold add_to_traf. cbn [tf_truns tf_hd tf_extra tf_dt].
  destruct rr as [|[T0 l] rest]; [cbn [mk_truns runs_add]; rewrite (N.eqb_refl T); eexists; reflexivity|].
  rewrite lenN_cons in *. cbn [runs_add]. destruct (T0 =? T) eqn:E.
  - (* the latest run belongs to T: its trun is the last one and has number nextTrunNr - 1 *)
    apply N.eqb_eq in E. subst T0. cbn [mk_truns]. rewrite !(N.eqb_refl T).
    destruct (mk_truns T rest ++ [canon (lenN rest) l]) as [|a m] eqn:Ea; [destruct (mk_truns T rest); discriminate|].
    rewrite <- Ea, last_last, removelast_last. cbn [canon tr_won]. rewrite u32_pred, N.eqb_refl, lenN_cons by lia.
    cbn [negb]. destruct (mk_truns T rest ++ [canon (lenN rest) l]) as [|a' [|b' m']]; eexists; reflexivity.
  - (* the latest run belongs to another track: a trun of T, if there is one, is older *)
    cbn [mk_truns]. rewrite E, (N.eqb_refl T), app_nil_r, !lenN_cons.
    rewrite (u32_small (1 + lenN rest + 1)), (N.add_comm (1 + lenN rest) 1) by lia.
    destruct (mk_truns T rest) as [|a m] eqn:Ea.
    + cbn [last create_trun tr_won]. rewrite u32_pred, N.eqb_refl by lia. eexists; reflexivity.
    + assert (Hlt : tr_won (last (a :: m) (create_trun 0)) < lenN rest).
      { pose proof (mk_truns_won_lt T rest) as F. rewrite Forall_forall in F. rewrite <- Ea. apply F, last_in.
        rewrite Ea. discriminate. }
      rewrite u32_pred by lia. destruct (_ =? lenN rest) eqn:Ew; [apply N.eqb_eq in Ew; lia|]. cbn [negb].
      rewrite (u32_small (1 + lenN rest + 1)), (N.add_comm _ 1) by lia. destruct m; eexists; reflexivity.
Qed.

Lemma add_to_track_trafs_multi rr s dts T ts ts' n' :
  lenN rr + 1 < 4294967296 ->
  NoDup (map track_of ts) -> Forall (fun t => tf_truns t = mk_truns (track_of t) rr) ts ->
  add_to_track_trafs ts T (lenN rr) s dts = Some (ts', n') ->
  n' = lenN (runs_add rr T s) /\ map track_of ts' = map track_of ts /\
  Forall (fun t => tf_truns t = mk_truns (track_of t) (runs_add rr T s)) ts'.
Proof.
  intros Hb Hd Hf H.
  assert (A : forall t, track_of t = T -> tf_truns t = mk_truns (track_of t) rr ->
                        exists dt', add_to_traf t (lenN rr) s dts
                                    = (mkTraf (tf_hd t) dt' (mk_truns T (runs_add rr T s)) (tf_extra t), lenN (runs_add rr T s))).
  { intros [h dt trs ex] <-. cbn [tf_truns tf_hd tf_extra]. intros ->. apply add_to_traf_multi. exact Hb. }
  split; [|split].
  - destruct (add_to_track_trafs_some _ _ _ _ _ _ _ H) as (pre & t & post & -> & _ & Et & _ & ->).
    apply Forall_app in Hf. destruct Hf as [_ Hf]. inversion Hf as [|? ? Ht _]; subst.
    destruct (A t eq_refl Ht) as [dt' ->]. reflexivity.
  - destruct (add_to_track_trafs_some _ _ _ _ _ _ _ H) as (pre & t & post & -> & _ & _ & -> & _).
    destruct (add_to_traf_shape t (lenN rr) s dts) as (dt' & truns' & ->). rewrite !map_app. reflexivity.
  - refine (add_to_track_trafs_Forall (fun t => tf_truns t = mk_truns (track_of t) rr) _ _ _ _ _ _ _ _ Hd H _ _ Hf).
    + intros x Hx ->. symmetry. apply mk_truns_add_other, N.eqb_neq. exact Hx.
    + intros t Et Ht. destruct (A t Et Ht) as [dt' ->]. cbn [fst tf_truns]. unfold track_of at 1. cbn [tf_hd].
      fold (track_of t). rewrite Et. reflexivity.
Qed.

Definition to_track_op (o : op) : bool :=
  match o with OFullTo _ _ _ _ | OMetaTo _ _ _ => true | _ => false end.

Definition op_first_sample (o : op) : sample :=
  match o with
  | OFull s _ _ | OFullTo _ s _ _ | OMetaTo _ s _ | OMeta s _ => s
  | _ => mkSample 0 0 0 0
  end.

Lemma step_multi rr fr o :
  lenN rr + 1 < 4294967296 -> to_track_op o = true -> multi_inv rr fr ->
  match step fr o with
  | Ok fr' => exists T, op_track o = Some T /\ In T (map track_of (fr_trafs fr)) /\
                        multi_inv (runs_add rr T (op_first_sample o)) fr' /\
                        map track_of (fr_trafs fr') = map track_of (fr_trafs fr)
  | Err => exists T, op_track o = Some T /\ ~ In T (map track_of (fr_trafs fr))
  | _ => False
  end.
Proof.
  intros Hb Ho (Hn & Hd & Hf). change (NoDup (map track_of (fr_trafs fr))) in Hd.
  assert (A : forall t s d, match add_sample_to_track fr t s d with
              | Ok fr' => In t (map track_of (fr_trafs fr)) /\ multi_inv (runs_add rr t s) fr' /\
                          map track_of (fr_trafs fr') = map track_of (fr_trafs fr)
              | Err => ~ In t (map track_of (fr_trafs fr))
              | _ => False
              end).
  { intros t s d. unfold add_sample_to_track. rewrite Hn.
    destruct (add_to_track_trafs (fr_trafs fr) t (lenN rr) s d) as [[ts' n']|] eqn:E.
    - destruct (add_to_track_trafs_multi rr s d t _ _ _ Hb Hd Hf E) as (-> & Hm & Hf').
      destruct (add_to_track_trafs_some _ _ _ _ _ _ _ E) as (pre & t0 & post & E0 & _ & Et & _).
      split; [rewrite E0, map_app; apply in_or_app; right; left; exact Et|]. split; [|exact Hm].
      split; [reflexivity|]. split; [|exact Hf']. change (NoDup (map track_of ts')). rewrite Hm. exact Hd.
    - apply add_to_track_trafs_none in E. exact E. }
  destruct o as [s d data|t s d data|t s d|s d|ss d|d ss data]; try discriminate; cbn [step op_track op_first_sample];
    specialize (A t s d); destruct (add_sample_to_track fr t s d) as [fr1| | |]; cbn [rbind]; try contradiction; eauto.
Qed.

(* the samples of track T held by the runs, oldest first *)
Fixpoint track_samples (T : N) (rr : runs) : list sample :=
  match rr with
  | [] => []
  | (T', ss) :: rest => track_samples T rest ++ (if T' =? T then ss else [])
  end.

Lemma mk_truns_samples T rr : flat_map tr_samples (mk_truns T rr) = track_samples T rr.
Proof.
  induction rr as [|[T' ss] rest IH]; cbn [mk_truns track_samples flat_map]; [reflexivity|].
  rewrite flat_map_app, IH. destruct (T' =? T); cbn [flat_map canon tr_samples]; rewrite ?app_nil_r; reflexivity.
Qed.

Lemma track_samples_add T T' rr s :
  track_samples T' (runs_add rr T s) = track_samples T' rr ++ (if T =? T' then [s] else []).
Proof.
  unfold runs_add. destruct rr as [|[T0 l] rest]; cbn [track_samples app]; [reflexivity|].
  destruct (T0 =? T) eqn:E; cbn [track_samples]; [|reflexivity].
  apply N.eqb_eq in E. subst T0. destruct (T =? T'); rewrite ?app_nil_r, ?app_assoc; reflexivity.
Qed.

(* samples added to track T' by the history, given the fragment's track ids *)
Definition added_multi (tracks : list N) (T' : N) (ops : list op) : list sample :=
  flat_map (fun o => match op_track o with
                     | Some T => if (T =? T') && existsb (N.eqb T) tracks then [op_first_sample o] else []
                     | None => []
                     end) ops.

Lemma existsb_eqb_in T l : existsb (N.eqb T) l = true <-> In T l.
Proof.
  rewrite existsb_exists. split.
  - intros (x & Hx & E). apply N.eqb_eq in E. subst. exact Hx.
  - intros H. exists T. split; [exact H|apply N.eqb_refl].
Qed.

Lemma history_multi ops : forall rr fr cs fr',
  lenN rr + N.of_nat (length ops) < 4294967296 ->
  forallb to_track_op ops = true ->
  multi_inv rr fr -> run_ops fr ops = (cs, Some fr') ->
  exists rr', multi_inv rr' fr' /\
    map track_of (fr_trafs fr') = map track_of (fr_trafs fr) /\
    forall T', track_samples T' rr' = track_samples T' rr ++ added_multi (map track_of (fr_trafs fr)) T' ops.
Proof.
  intros rr fr cs fr' Hb Ho Hi H. apply run_ops_runs_to in H. revert rr Hb Ho Hi.
  induction H as [fr|fr o fr1 ops cs fr' E _ IH|fr o ops cs fr' E _ IH]; intros rr Hb Ho Hi.
  - exists rr. split; [exact Hi|]. split; [reflexivity|]. intros T'. cbn. rewrite app_nil_r. reflexivity.
  - cbn [forallb length] in Ho, Hb. apply andb_true_iff in Ho. destruct Ho as [Ho1 Ho2].
    pose proof (step_multi rr fr o ltac:(lia) Ho1 Hi) as S. rewrite E in S. destruct S as (T & HT & Hin & Hi1 & Hm1).
    destruct (IH (runs_add rr T (op_first_sample o))) as (rr' & Hi' & Hm' & Hs'); try assumption.
    { destruct (lenN_runs_add rr T (op_first_sample o)) as [->| ->]; lia. }
    exists rr'. split; [exact Hi'|]. split; [congruence|].
    intros T'. rewrite Hs', track_samples_add, Hm1. unfold added_multi. cbn [flat_map]. rewrite HT.
    apply existsb_eqb_in in Hin. rewrite Hin, andb_true_r, app_assoc. reflexivity.
  - cbn [forallb length] in Ho, Hb. apply andb_true_iff in Ho. destruct Ho as [Ho1 Ho2].
    pose proof (step_multi rr fr o ltac:(lia) Ho1 Hi) as S. rewrite E in S. destruct S as (T & HT & Hnin).
    destruct (IH rr) as (rr' & Hi' & Hm' & Hs'); try assumption; [lia|].
    exists rr'. split; [exact Hi'|]. split; [exact Hm'|].
    intros T'. rewrite Hs'. unfold added_multi. cbn [flat_map]. rewrite HT.
    destruct (existsb (N.eqb T) _) eqn:Ex; [apply existsb_eqb_in in Ex; contradiction|].
    rewrite andb_false_r. reflexivity.
Qed.

Lemma track_samples_nil T : track_samples T [] = [].
Proof. reflexivity. Qed.

(* ------------------------------------------------------------------ mdat bytes = added data in op order *)
Definition is_full (o : op) : bool := match o with OFull _ _ _ | OFullTo _ _ _ _ => true | _ => false end.

Lemma history_full_mdat ops : forall fr cs fr',
  forallb is_full ops = true -> run_ops fr ops = (cs, Some fr') ->
  md_data (fr_mdat fr') = md_data (fr_mdat fr) ++ flat_map op_data (accepted cs ops) /\
  md_parts (fr_mdat fr') = md_parts (fr_mdat fr) /\
  (md_lazy (fr_mdat fr) = 0 -> md_lazy (fr_mdat fr') = 0).
Proof.
  intros fr cs fr' Hf H. apply run_ops_runs_to in H.
  induction H as [fr|fr o fr1 ops cs fr' E _ IH|fr o ops cs fr' E _ IH]; cbn [accepted flat_map].
  - rewrite app_nil_r. auto.
  - cbn [forallb] in Hf. apply andb_true_iff in Hf. destruct Hf as [Hf1 Hf2].
    destruct (IH Hf2) as (D & P & L). destruct (step_shape _ _ _ E) as (ts & n & -> & _). cbn [fr_with fr_mdat] in *.
    rewrite D, P, app_assoc. destruct o; try discriminate; auto.
  - cbn [forallb] in Hf. apply andb_true_iff in Hf. exact (IH (proj2 Hf)).
Qed.

(* ------------------------------------------------------------------ data offset of a single-run fragment *)
Lemma i32_small x : x < 2147483648 -> i32 x = Z.of_N x.
Proof.
  intros H. unfold i32. rewrite N.mod_small by lia.
  destruct (x <? 2147483648) eqn:E; [reflexivity|]. apply N.ltb_ge in E. lia.
Qed.

Lemma set_offsets_single fr h dt l ex :
  fr_trafs fr = [mkTraf h dt [canon 0 l] ex] ->
  let m := md_size_touch (fr_mdat fr) in
  set_offsets fr =
    fr_with fr [mkTraf h dt [tr_with_doff (canon 0 l) (i32 (moof_size fr + md_header_size m))] ex] m (fr_next fr).
Proof. intros Ht. unfold set_offsets. rewrite Ht. reflexivity. Qed.
