(* C05GhostProofs.v — the full invariant of multi-track histories, with the added full samples as ghost state:
   truns per run, tfhd untouched, tfdt = decode time of the first sample of the track, mdat = data in op order. *)
From Coq Require Import Permutation.
From V.lib Require Import Base.
From V.c05 Require Import C05Model C05FragModel C05HistProofs C05OffProofs.

(* runs with the full samples (latest run first) *)
Definition fruns := list (N * list fullsample).
Definition runs_of (g : fruns) : runs := map (fun p => (fst p, map fs_s (snd p))) g.

Definition fruns_add (g : fruns) (T : N) (f : fullsample) : fruns :=
  match g with
  | (T', l) :: rest => if T' =? T then (T, l ++ [f]) :: rest else (T, [f]) :: g
  | [] => [(T, [f])]
  end.

Lemma runs_of_add g T f : runs_of (fruns_add g T f) = runs_add (runs_of g) T (fs_s f).
Proof.
  destruct g as [|[T' l] rest]; cbn [fruns_add runs_of runs_add map fst snd]; [reflexivity|].
  destruct (T' =? T); cbn [map fst snd]; [rewrite map_app|]; reflexivity.
Qed.

Definition op_full (o : op) : fullsample := mkFull (op_first_sample o) (op_dts o) (op_data o).

(* the ghost state reached by a history: additions to unknown track ids are refused *)
Fixpoint ghost (tracks : list N) (g : fruns) (ops : list op) : fruns :=
  match ops with
  | [] => g
  | o :: rest =>
      match op_track o with
      | Some T => if existsb (N.eqb T) tracks then ghost tracks (fruns_add g T (op_full o)) rest
                  else ghost tracks g rest
      | None => ghost tracks g rest
      end
  end.

(* full samples of track T, oldest first; all data in write order; number of samples *)
Fixpoint track_fulls (T : N) (g : fruns) : list fullsample :=
  match g with
  | [] => []
  | (T', l) :: rest => track_fulls T rest ++ (if T' =? T then l else [])
  end.
Fixpoint all_data (g : fruns) : list N :=
  match g with
  | [] => []
  | (_, l) :: rest => all_data rest ++ flat_map fs_data l
  end.
Fixpoint count (g : fruns) : N :=
  match g with [] => 0 | (_, l) :: rest => count rest + lenN l end.

Lemma track_fulls_add T T' g f :
  track_fulls T' (fruns_add g T f) = track_fulls T' g ++ (if T =? T' then [f] else []).
Proof.
  destruct g as [|[T0 l] rest]; cbn [fruns_add track_fulls app]; [reflexivity|].
  destruct (T0 =? T) eqn:E.
  - apply N.eqb_eq in E. subst T0. cbn [track_fulls]. destruct (T =? T'); rewrite ?app_nil_r, ?app_assoc; reflexivity.
  - cbn [track_fulls]. reflexivity.
Qed.

Lemma all_data_add g T f : all_data (fruns_add g T f) = all_data g ++ fs_data f.
Proof.
  destruct g as [|[T0 l] rest]; cbn [fruns_add all_data flat_map app]; [rewrite app_nil_r; reflexivity|].
  destruct (T0 =? T); cbn [all_data flat_map].
  - rewrite flat_map_app. cbn [flat_map]. rewrite app_nil_r, app_assoc. reflexivity.
  - rewrite app_nil_r. reflexivity.
Qed.

Lemma count_add g T f : count (fruns_add g T f) = count g + 1.
Proof.
  destruct g as [|[T0 l] rest]; cbn [fruns_add count]; [reflexivity|].
  destruct (T0 =? T); cbn [count]; rewrite ?lenN_app, ?lenN_cons, ?lenN_nil; unfold lenN; cbn [length]; lia.
Qed.

Lemma lenN_le_count g : lenN g <= count g -> True. Proof. trivial. Qed.

Definition nonempty_in (tracks : list N) (g : fruns) : Prop :=
  Forall (fun p => In (fst p) tracks /\ snd p <> []) g.

Lemma nonempty_in_add tracks g T f : In T tracks -> nonempty_in tracks g -> nonempty_in tracks (fruns_add g T f).
Proof.
  intros HT H. destruct g as [|[T0 l] rest]; cbn [fruns_add].
  - constructor; [|constructor]. cbn. split; [exact HT|discriminate].
  - inversion H as [|? ? [H1 H2] H3]; subst. destruct (T0 =? T).
    + constructor; [|exact H3]. cbn [fst snd] in *. split; [exact HT|]. destruct l; discriminate.
    + constructor; [|exact H]. cbn. split; [exact HT|discriminate].
Qed.

Lemma lenN_runs_le_count tracks g : nonempty_in tracks g -> lenN g <= count g.
Proof.
  induction 1 as [|[T l] rest [_ Hl] _ IH]; cbn [count]; [unfold lenN; cbn; lia|].
  rewrite lenN_cons. cbn [snd] in Hl. destruct l; [congruence|]. rewrite lenN_cons. lia.
Qed.

(* tfdt of a track: SetBaseMediaDecodeTime(decode time of the first sample added to it) *)
Definition tfdt_of (l : list fullsample) : tfdt :=
  match l with [] => mkTfdt 0 0 | f :: _ => set_base (fs_dts f) end.

(* ------------------------------------------------------------------ the invariant *)
Definition ginv (tracks : list N) (g : fruns) (fr : frag) : Prop :=
  multi_inv (runs_of g) fr /\
  map track_of (fr_trafs fr) = tracks /\
  nonempty_in tracks g /\
  Forall (fun t => tf_hd t = create_tfhd (track_of t) /\ tf_dt t = tfdt_of (track_fulls (track_of t) g)) (fr_trafs fr) /\
  md_data (fr_mdat fr) = all_data g /\ md_parts (fr_mdat fr) = [] /\ md_lazy (fr_mdat fr) = 0.

Lemma create_multi_ginv tracks : NoDup tracks -> ginv tracks [] (create_multi tracks).
Proof.
  intros Hd. split; [apply (create_multi_inv tracks Hd)|]. split; [apply create_multi_tracks|].
  split; [constructor|]. split; [|repeat split].
  apply Forall_forall. intros t Ht. apply in_map_iff in Ht. destruct Ht as (x & <- & _). split; reflexivity.
Qed.

Lemma add_to_traf_dt t next s d :
  tf_dt (fst (add_to_traf t next s d)) =
    match tf_truns t with
    | [] => set_base d
    | [r] => if u32 (lenN (tr_samples r)) =? 0 then set_base d else tf_dt t
    | _ => tf_dt t
    end.
Proof.
  unfold add_to_traf. destruct (tf_truns t) as [|r [|r2 l]];
    match goal with |- context [if negb ?c then _ else _] => destruct c end; reflexivity.
Qed.

(* truns of a track exist exactly when the track has samples; every trun holds between 1 and count samples *)
Lemma mk_truns_nil_iff tracks T g :
  nonempty_in tracks g -> (mk_truns T (runs_of g) = [] <-> track_fulls T g = []).
Proof.
  induction 1 as [|[T' l] rest [_ Hl] _ IH]; cbn [runs_of map mk_truns track_fulls fst snd]; [tauto|].
  fold (runs_of rest). cbn [snd] in Hl. destruct (T' =? T).
  - split; intros H; apply app_eq_nil in H; destruct H as [_ H]; [discriminate|congruence].
  - rewrite !app_nil_r. exact IH.
Qed.

Lemma mk_truns_samples_bounds tracks T g :
  nonempty_in tracks g ->
  Forall (fun r => tr_samples r <> [] /\ lenN (tr_samples r) <= count g) (mk_truns T (runs_of g)).
Proof.
  induction 1 as [|[T' l] rest [_ Hl] _ IH]; cbn [runs_of map mk_truns count fst snd]; [constructor|].
  fold (runs_of rest). cbn [snd] in Hl. apply Forall_app. split.
  - eapply Forall_impl; [|exact IH]. cbn beta. intros r [H1 H2]. split; [exact H1|lia].
  - destruct (T' =? T); [|constructor]. constructor; [|constructor]. cbn [canon tr_samples].
    split; [destruct l; [congruence|discriminate]|]. unfold lenN. rewrite map_length. fold (lenN l). lia.
Qed.

Lemma tfdt_step tracks T g t s d data :
  nonempty_in tracks g -> count g < 4294967296 ->
  tf_truns t = mk_truns T (runs_of g) -> tf_dt t = tfdt_of (track_fulls T g) ->
  tf_dt (fst (add_to_traf t (lenN (runs_of g)) s d)) = tfdt_of (track_fulls T g ++ [mkFull s d data]).
Proof.
  intros Hn Hc Ht Hd. rewrite add_to_traf_dt, Ht.
  pose proof (mk_truns_nil_iff tracks T g Hn) as Hnil.
  pose proof (mk_truns_samples_bounds tracks T g Hn) as Hb.
  destruct (mk_truns T (runs_of g)) as [|r [|r2 l]] eqn:E.
  - rewrite (proj1 Hnil eq_refl). reflexivity.
  - inversion Hb as [|? ? [H1 H2] _]; subst.
    assert (Hne : track_fulls T g <> []) by (intros H; apply Hnil in H; discriminate).
    rewrite u32_small by lia.
    destruct (lenN (tr_samples r) =? 0) eqn:E0.
    + apply N.eqb_eq in E0. unfold lenN in E0. destruct (tr_samples r); [congruence|cbn in E0; lia].
    + rewrite Hd. destruct (track_fulls T g); [congruence|reflexivity].
  - assert (Hne : track_fulls T g <> []) by (intros H; apply Hnil in H; discriminate).
    rewrite Hd. destruct (track_fulls T g); [congruence|reflexivity].
Qed.

Lemma lenN_runs_of g : lenN (runs_of g) = lenN g.
Proof. unfold lenN, runs_of. rewrite map_length. reflexivity. Qed.

Definition is_full_to (o : op) : bool := match o with OFullTo _ _ _ _ => true | _ => false end.

Lemma step_ginv tracks g fr o :
  NoDup tracks -> count g + 1 < 4294967296 -> is_full_to o = true -> ginv tracks g fr ->
  match step fr o with
  | Ok fr' => exists T, op_track o = Some T /\ In T tracks /\ ginv tracks (fruns_add g T (op_full o)) fr'
  | Err => exists T, op_track o = Some T /\ ~ In T tracks
  | _ => False
  end.
Proof.
  intros Hnd Hc Ho (Hm & Htr & Hn & Hf & Hdat & Hpar & Hlaz).
  destruct o as [s d data|t s d data|t s d|s d|ss d|d ss data]; try discriminate.
  pose proof (lenN_runs_le_count tracks g Hn) as Hle.
  assert (Hb : lenN (runs_of g) + 1 < 4294967296) by (rewrite lenN_runs_of; lia).
  pose proof (step_multi (runs_of g) fr (OFullTo t s d data) Hb eq_refl Hm) as S. rewrite Htr in S.
  cbn [step op_track op_full op_first_sample op_dts op_data] in *. unfold add_sample_to_track in *.
  destruct Hm as (Hnext & Hnd' & Hft). rewrite Hnext in *.
  destruct (add_to_track_trafs (fr_trafs fr) t (lenN (runs_of g)) s d) as [[ts' n']|] eqn:Ea; cbn [rbind] in *; [|exact S].
  destruct S as (T & [= <-] & Hin & Hm' & Hmap). exists t. split; [reflexivity|]. split; [exact Hin|].
  split; [rewrite runs_of_add; exact Hm'|]. split; [exact Hmap|]. split; [apply nonempty_in_add; assumption|].
  cbn [fr_with fr_trafs fr_mdat md_add_data md_set_lazy0 md_add_lazy md_data md_parts md_lazy].
  split; [|rewrite all_data_add, Hdat; repeat split; assumption].
  (* tfhd and tfdt of every traf *)
  refine (add_to_track_trafs_Forall _ _ _ _ _ _ _ _ _ Hnd' Ea _ _ (Forall_and Hf Hft)); cbn beta.
  - intros x Hx [[H1 H2] _]. split; [exact H1|]. rewrite track_fulls_add.
    destruct (t =? track_of x) eqn:Ex; [apply N.eqb_eq in Ex; congruence|]. rewrite app_nil_r. exact H2.
  - intros t0 <- [[Hh0 Hd0] Ht0]. destruct (add_to_traf_shape t0 (lenN (runs_of g)) s d) as (dt' & truns' & Es).
    assert (Htk : track_of (fst (add_to_traf t0 (lenN (runs_of g)) s d)) = track_of t0) by (rewrite Es; reflexivity).
    rewrite Htk. split; [rewrite Es; exact Hh0|]. rewrite track_fulls_add, N.eqb_refl.
    apply (tfdt_step tracks (track_of t0) g t0 s d data Hn); [lia|exact Ht0|exact Hd0].
Qed.

Lemma history_ginv tracks ops : forall g fr cs fr',
  NoDup tracks -> count g + N.of_nat (length ops) < 4294967296 -> forallb is_full_to ops = true ->
  ginv tracks g fr -> run_ops fr ops = (cs, Some fr') ->
  ginv tracks (ghost tracks g ops) fr'.
Proof.
  intros g fr cs fr' Hnd Hc Ho Hi H. apply run_ops_runs_to in H. revert g Hc Ho Hi.
  induction H as [fr|fr o fr1 ops cs fr' E _ IH|fr o ops cs fr' E _ IH]; intros g Hc Ho Hi; cbn [ghost]; [exact Hi| |];
    cbn [forallb length] in Ho, Hc; apply andb_true_iff in Ho; destruct Ho as [Ho1 Ho2];
    pose proof (step_ginv tracks g fr o Hnd ltac:(lia) Ho1 Hi) as S; rewrite E in S.
  - destruct S as (T & -> & Hin & Hi1). apply existsb_eqb_in in Hin. rewrite Hin.
    apply IH; try assumption. rewrite count_add. lia.
  - destruct S as (T & -> & Hnin). destruct (existsb (N.eqb T) tracks) eqn:Ex; [apply existsb_eqb_in in Ex; contradiction|].
    apply IH; try assumption. lia.
Qed.
