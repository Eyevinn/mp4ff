(* C05EncInvisProofs.v — plain Encodes in the middle of a history are INVISIBLE to the final Encode: the fragment
   reached differs from the one the additions alone build only in the data offsets (and possibly the large-size
   mark), and the final Encode rewrites every data offset, so it produces the very same encoded fragment.  Every
   theorem about `encode_frag opt fr` for an encode-free history therefore holds for the history with plain Encodes. *)
From V.lib Require Import Base.
From V.c05 Require Import C05Model C05FragModel C05OptProofs C05HistProofs C05OffProofs C05GhostProofs C05ReadProofs
  C05RoundProofs C05SingleProofs C05EncHistModel C05EncHistProofs.
From Coq Require Import Permutation.

(* ------------------------------------------------------------------ what no operation touches *)
Lemma encode_state_frame opt a c a' : encode_state opt a = (c, Some a') -> xframe a' a.
Proof.
  unfold encode_state. intros H.
  destruct (if opt then optimize_first a else Ok a) as [a1| | |] eqn:E1; try discriminate.
  - pose proof (xframe_trans _ _ _ (set_offsets_frame a1) (optimize_first_frame opt a a1 E1)) as X. cbn zeta in H.
    destruct (existsb doff_unset (all_truns (fr_trafs (set_offsets a1)))); injection H as _ <-; exact X.
  - injection H as _ <-. apply xframe_refl.
Qed.

Lemma hops_frame hs a cs a' : run_hops a hs = (cs, Some a') -> xframe a' a.
Proof.
  apply (run_hops_inv (fun f => xframe f a)); [| |apply xframe_refl].
  - intros x o x' X E. exact (xframe_trans _ _ _ (proj1 (step_frame _ _ _ E)) X).
  - intros opt x c x' X E. exact (xframe_trans _ _ _ (encode_state_frame _ _ _ _ E) X).
Qed.

(* ------------------------------------------------------------------ forgetting the data offsets *)
Definition undoff_trun (r : trun) : trun := tr_with_doff r 0.
Definition undoff_traf (t : traf) : traf := mkTraf (tf_hd t) (tf_dt t) (map undoff_trun (tf_truns t)) (tf_extra t).
Definition undoff (fr : frag) : frag :=
  mkFrag (map undoff_traf (fr_trafs fr)) (fr_mdat fr) (fr_next fr) (fr_pre fr) (fr_moofx fr) (fr_post fr).

Lemma mdat_eq m1 m : msim m1 m -> md_large m1 = md_large m -> m1 = m.
Proof. destruct m1, m. unfold msim. cbn. intros (A & B & C) D. subst. reflexivity. Qed.

Lemma undoff_trafs_eq ta tb :
  Forall2 (tsimQ eqd (@eq tfhd)) ta tb -> map tf_extra ta = map tf_extra tb -> map undoff_traf ta = map undoff_traf tb.
Proof.
  intros H. induction H as [|x y la lb (Hdt & Hh & Hr) H IH]; intros Hx; [reflexivity|].
  cbn [map] in Hx |- *. injection Hx as Hx1 Hx2. rewrite (IH Hx2). f_equal.
  unfold undoff_traf. rewrite Hdt, Hh, Hx1. f_equal.
  clear -Hr. induction Hr as [|r1 r l1 l Hq _ IHr]; [reflexivity|]. cbn [map]. rewrite IHr. f_equal. exact Hq.
Qed.

Lemma fsimS_undoff a b : fsimS a b -> xframe a b -> md_large (fr_mdat a) = md_large (fr_mdat b) -> undoff a = undoff b.
Proof.
  intros (HT & Hm & Hn & _) (Hp & X2 & X3 & X1) Hl. unfold undoff.
  rewrite (undoff_trafs_eq _ _ HT X1), (mdat_eq _ _ Hm Hl), Hn, Hp, X2, X3. reflexivity.
Qed.

(* ------------------------------------------------------------------ OptimizeTfhdTrun does not look at the data offset *)
Lemma opt_dur_doff h r z : opt_dur h (tr_with_doff r z) = (fst (opt_dur h r), tr_with_doff (snd (opt_dur h r)) z).
Proof.
  unfold opt_dur. cbn [tr_with_doff tr_samples]. change (has_dur (tr_with_doff r z)) with (has_dur r).
  destruct (tr_samples r); [reflexivity|]. destruct (has_dur r && _); reflexivity.
Qed.
Lemma opt_size_doff h r z : opt_size h (tr_with_doff r z) = (fst (opt_size h r), tr_with_doff (snd (opt_size h r)) z).
Proof.
  unfold opt_size. cbn [tr_with_doff tr_samples]. change (has_size (tr_with_doff r z)) with (has_size r).
  destruct (tr_samples r); [reflexivity|]. destruct (has_size r && _); reflexivity.
Qed.
Lemma opt_flags_doff f h r z :
  opt_flags_gen f h (tr_with_doff r z) = (fst (opt_flags_gen f h r), tr_with_doff (snd (opt_flags_gen f h r)) z).
Proof.
  unfold opt_flags_gen. cbn [tr_with_doff tr_samples]. change (has_sflags (tr_with_doff r z)) with (has_sflags r).
  destruct (tr_samples r) as [|s0 [|s1 l]]; try reflexivity.
  destruct (has_sflags r && forallb (fun s : sample => s_flags s =? s_flags s1) (tl (s0 :: s1 :: l))); [|reflexivity].
  destruct (negb (s_flags s0 =? s_flags s1)); [reflexivity|]. destruct f; reflexivity.
Qed.
Lemma opt_cto_doff h r z : opt_cto h (tr_with_doff r z) = (fst (opt_cto h r), tr_with_doff (snd (opt_cto h r)) z).
Proof.
  unfold opt_cto, other_field. cbn [tr_with_doff tr_samples].
  change (has_cto (tr_with_doff r z)) with (has_cto r). change (has_dur (tr_with_doff r z)) with (has_dur r).
  change (has_size (tr_with_doff r z)) with (has_size r). change (has_sflags (tr_with_doff r z)) with (has_sflags r).
  destruct (has_cto r && _ && _); reflexivity.
Qed.

Definition rmap {A B} (f : A -> B) (x : res A) : res B :=
  match x with Ok a => Ok (f a) | Err => Err | Panic => Panic | OutOfFuel => OutOfFuel end.

Lemma optimize_doff h r z :
  optimize h (tr_with_doff r z) = rmap (fun p => (fst p, tr_with_doff (snd p) z)) (optimize h r).
Proof.
  unfold optimize, optimize_gen. cbn [tr_with_doff tr_samples].
  destruct (tr_samples r) as [|s0 [|s1 l]] eqn:E; try reflexivity.
  rewrite opt_dur_doff. destruct (opt_dur h r) as [h1 r1]. cbn [fst snd].
  rewrite opt_size_doff. destruct (opt_size h1 r1) as [h2 r2]. cbn [fst snd].
  rewrite opt_flags_doff. destruct (opt_flags_gen FIXED_FSF h2 r2) as [h3 r3]. cbn [fst snd].
  rewrite opt_cto_doff. destruct (opt_cto h3 r3) as [h4 r4]. reflexivity.
Qed.

Lemma optimize_first_undoff fr : optimize_first (undoff fr) = rmap undoff (optimize_first fr).
Proof.
  unfold optimize_first, undoff at 1. cbn [fr_trafs].
  destruct (fr_trafs fr) as [|t ts] eqn:Et; [cbn [map rmap]; unfold undoff; rewrite Et; reflexivity|].
  cbn [map undoff_traf tf_truns tf_hd tf_dt tf_extra].
  destruct (tf_truns t) as [|r rs] eqn:Er; [cbn [map rmap]; unfold undoff, undoff_traf; rewrite Et; cbn [map]; rewrite Er; reflexivity|].
  cbn [map]. unfold undoff_trun at 1. rewrite optimize_doff.
  destruct (optimize (tf_hd t) r) as [[h' r']| | |]; cbn [rmap rbind fst snd]; reflexivity.
Qed.

(* ------------------------------------------------------------------ SetTrunDataOffsets rewrites every data offset *)
Lemma all_truns_undoff ts : all_truns (map undoff_traf ts) = map undoff_trun (all_truns ts).
Proof.
  unfold all_truns. induction ts as [|t ts IH]; [reflexivity|]. cbn [map flat_map]. rewrite IH, map_app. reflexivity.
Qed.

Lemma insert_won_undoff r l : insert_won (undoff_trun r) (map undoff_trun l) = map undoff_trun (insert_won r l).
Proof.
  induction l as [|x l IH]; [reflexivity|]. cbn [map insert_won].
  change (tr_won (undoff_trun r)) with (tr_won r). change (tr_won (undoff_trun x)) with (tr_won x).
  destruct (tr_won r <=? tr_won x); [reflexivity|]. cbn [map]. rewrite IH. reflexivity.
Qed.

Lemma sort_won_undoff l : sort_won (map undoff_trun l) = map undoff_trun (sort_won l).
Proof.
  unfold sort_won. induction l as [|x l IH]; [reflexivity|]. cbn [map fold_right]. rewrite IH. apply insert_won_undoff.
Qed.

Lemma assign_offsets_undoff l : forall off, assign_offsets (map undoff_trun l) off = assign_offsets l off.
Proof. induction l as [|x l IH]; intros off; [reflexivity|]. cbn [map assign_offsets]. rewrite IH. reflexivity. Qed.

Lemma lookup_off_dflt tbl w d1 d2 : In w (map fst tbl) -> lookup_off tbl w d1 = lookup_off tbl w d2.
Proof.
  induction tbl as [|[k o] tbl IH]; intros Hin; [destruct Hin|]. cbn [lookup_off].
  destruct (k =? w) eqn:E; [reflexivity|]. apply IH. cbn [map fst] in Hin. destruct Hin as [->|Hin]; [|exact Hin].
  rewrite N.eqb_refl in E. discriminate.
Qed.

Lemma assign_offsets_keys l : forall off, map fst (assign_offsets l off) = map tr_won l.
Proof. induction l as [|x l IH]; intros off; [reflexivity|]. cbn [assign_offsets map fst]. rewrite IH. reflexivity. Qed.

Lemma existsb_map {A B} (p : B -> bool) (f : A -> B) l : existsb p (map f l) = existsb (fun a => p (f a)) l.
Proof. induction l as [|a l IH]; [reflexivity|]. cbn [map existsb]. rewrite IH. reflexivity. Qed.

Lemma early_undoff fr : early (undoff fr) = early fr.
Proof.
  unfold early, undoff. cbn [fr_trafs]. rewrite all_truns_undoff, existsb_map. unfold lenN. rewrite map_length. reflexivity.
Qed.

Lemma set_offsets_undoff fr : early fr = false -> set_offsets (undoff fr) = set_offsets fr.
Proof.
  intros He. pose proof (early_undoff fr) as He'. rewrite He in He'. unfold set_offsets.
  fold (early fr). fold (early (undoff fr)). rewrite He, He'.
  unfold undoff at 1 2 3 4 5. cbn [fr_trafs fr_mdat fr_next]. unfold fr_with. cbn [fr_pre fr_moofx fr_post fr_mdat fr_next undoff].
  assert (Hms : moof_size (undoff fr) = moof_size fr).
  { unfold moof_size, undoff. cbn [fr_trafs fr_moofx]. f_equal. f_equal. rewrite map_map. f_equal. apply map_ext. intros t.
    unfold traf_size, undoff_traf. cbn [tf_hd tf_dt tf_truns tf_extra]. rewrite map_map. reflexivity. }
  unfold undoff in Hms. rewrite Hms. rewrite all_truns_undoff, sort_won_undoff, assign_offsets_undoff.
  f_equal. rewrite map_map. apply map_ext_in. intros t Ht. unfold undoff_traf. cbn [tf_hd tf_dt tf_truns tf_extra]. f_equal.
  rewrite map_map. apply map_ext_in. intros r Hr. change (tr_won (undoff_trun r)) with (tr_won r).
  unfold undoff_trun, tr_with_doff. cbn [tr_version tr_flags tr_fsf tr_samples tr_won tr_doff]. f_equal.
  apply lookup_off_dflt. rewrite assign_offsets_keys.
  assert (Hin : In r (all_truns (fr_trafs fr))) by (unfold all_truns; apply in_flat_map; exists t; split; assumption).
  apply in_map. eapply Permutation_in; [symmetry; apply sort_won_perm|exact Hin].
Qed.

Lemma optimize_first_early fr fr1 : optimize_first fr = Ok fr1 -> early fr1 = early fr.
Proof.
  unfold optimize_first. destruct (fr_trafs fr) as [|t ts] eqn:Et; [intros [= <-]; reflexivity|].
  destruct (tf_truns t) as [|r rs] eqn:Er; [intros [= <-]; reflexivity|].
  destruct (optimize (tf_hd t) r) as [[h' r']| | |] eqn:Eo; try discriminate. cbn [rbind]. intros [= <-].
  pose proof (optimize_frame _ _ _ _ _ Eo) as (F1 & _). cbn [snd] in F1.
  unfold early. cbn [fr_with fr_trafs]. rewrite Et. unfold all_truns. cbn [flat_map tf_truns]. rewrite Er.
  cbn [app existsb]. rewrite F1. unfold lenN. cbn [length]. rewrite !app_length. reflexivity.
Qed.

(* the final Encode does not depend on the data offsets the fragment carries *)
Lemma encode_frag_undoff opt fr : early fr = false -> encode_frag opt (undoff fr) = encode_frag opt fr.
Proof.
  intros He. unfold encode_frag.
  assert (H1 : (if opt then optimize_first (undoff fr) else Ok (undoff fr)) = rmap undoff (if opt then optimize_first fr else Ok fr)).
  { destruct opt; [apply optimize_first_undoff|reflexivity]. }
  rewrite H1.
  destruct (if opt then optimize_first fr else Ok fr) as [fr1| | |] eqn:E1; cbn [rmap rbind]; try reflexivity.
  assert (He1 : early fr1 = false).
  { destruct opt; [rewrite (optimize_first_early _ _ E1); exact He|injection E1 as <-; exact He]. }
  rewrite (set_offsets_undoff fr1 He1). reflexivity.
Qed.

(* ------------------------------------------------------------------ the theorem *)
Lemma plain_encodes_invisible hs a cs a' :
  plain hs = true -> run_hops a hs = (cs, Some a') ->
  exists b, run_ops a (adds hs) = (add_classes hs cs, Some b) /\ fsimS a' b /\
    (md_large (fr_mdat a') = md_large (fr_mdat a) ->
     NoDup (map tr_won (all_truns (fr_trafs b))) ->
     forall opt, encode_frag opt a' = encode_frag opt b).
Proof.
  intros Hp H. destruct (hops_simS hs a a cs a' Hp (fsimS_refl a) H) as (b & Hb & Hsim).
  exists b. split; [exact Hb|]. split; [exact Hsim|]. intros Hl Hd opt.
  destruct (run_ops_frame _ _ _ _ Hb) as (Y & Hlb).
  assert (X : xframe a' b) by (destruct (hops_frame hs a cs a' H) as (X1 & X2 & X3 & X4), Y as (Y1 & Y2 & Y3 & Y4); repeat split; congruence).
  assert (Hl' : md_large (fr_mdat a') = md_large (fr_mdat b)) by congruence.
  pose proof (fsimS_undoff a' b Hsim X Hl') as Hu.
  pose proof (nodup_not_early b Hd) as Heb.
  assert (Hea : early a' = false) by (rewrite <- (early_undoff a'), Hu, early_undoff; exact Heb).
  rewrite <- (encode_frag_undoff opt a' Hea), Hu. apply encode_frag_undoff. exact Heb.
Qed.

(* ------------------------------------------------------------------ corollary: single-track fragments, all six add operations *)
Lemma roundtrip_encodes_single_modes T hs cs fr opt fe pos0 tx pre mx post exs FL lz :
  Forall (fun o => op_dts o < 18446744073709551616) (adds hs) ->
  plain hs = true ->
  run_hops (with_extras (create_fragment T) pre mx post exs) hs = (cs, Some fr) ->
  md_large (fr_mdat fr) = false ->
  mode_ok (adds hs) (add_classes hs cs) FL lz ->
  map fs_s FL = added1 T (adds hs) -> Forall sized_f FL -> FL <> [] ->
  encode_frag opt fr = Ok fe ->
  moof_size fe + md_header_size (fr_mdat fe) + lenN (flat_map fs_data FL) < 2147483648 ->
  pos0 + fr_pre fe < 4611686018427387904 ->
  exists t,
    map tf_dt (fr_trafs fr) = [set_base t] /\
    get_full_samples (decoded_view fe pos0 lz) (Some tx) = Ok (if tx_track tx =? T then retime t FL else []).
Proof.
  intros Hdts Hp Hrun Hl Hmode Hs Hsz Hne Henc Hguard Hpos.
  set (fr0 := with_extras (create_fragment T) pre mx post exs) in *.
  destruct (plain_encodes_invisible hs fr0 cs fr Hp Hrun) as (b & Hb & Hsim & Hinv).
  destruct (history_created T pre mx post exs (adds hs) _ b Hdts Hb) as (_ & _ & t0 & ex0 & _ & Ht0).
  assert (Hd : NoDup (map tr_won (all_truns (fr_trafs b)))).
  { rewrite Ht0. cbn. constructor; [intros []|constructor]. }
  assert (Hl0 : md_large (fr_mdat fr) = md_large (fr_mdat fr0)) by (rewrite Hl; reflexivity).
  rewrite (Hinv Hl0 Hd opt) in Henc.
  destruct (roundtrip_single_modes T (adds hs) _ b opt fe pos0 tx pre mx post exs FL lz Hdts Hb Hmode Hs Hsz Hne Henc Hguard Hpos)
    as (t & ex & Ht & Hget).
  exists t. split; [|exact Hget].
  destruct Hsim as (HT & _). rewrite Ht in HT.
  destruct (fr_trafs fr) as [|t1 [|t2 ts]]; inversion HT as [|? ? ? ? (Hdt & _) Hrest]; subst; [|inversion Hrest].
  cbn [map]. rewrite Hdt. reflexivity.
Qed.
