(* C05SingleProofs.v — single-track fragments under ALL six add operations, one data mode per fragment
   (full samples / metadata-only with data written by the caller / sample intervals as data parts):
   the decoded fragment reads back the samples with their bytes. *)
From V.lib Require Import Base.
From V.c05 Require Import C05Model C05FragModel C05OptProofs C05HistProofs C05OffProofs C05GhostProofs
  C05ReadProofs C05RoundProofs C05LazyProofs C05LazyRoundProofs.

(* ------------------------------------------------------------------ single-track histories, all six operations *)
(* the traf keeps its shape; its tfdt is always some SetBaseMediaDecodeTime(t) *)
Lemma history_created T pre mx post exs ops cs fr :
  Forall (fun o => op_dts o < 18446744073709551616) ops ->
  run_ops (with_extras (create_fragment T) pre mx post exs) ops = (cs, Some fr) ->
  accepted cs ops = filter (hits T) ops /\ fr_next fr = 1 /\
  exists t ex, t < 18446744073709551616 /\ fr_trafs fr = [mkTraf (create_tfhd T) (set_base t) [canon 0 (added1 T ops)] ex].
Proof.
  intros Hb H. rewrite Forall_forall in Hb.
  assert (E : exists ex, fr_trafs (with_extras (create_fragment T) pre mx post exs)
                         = [mkTraf (create_tfhd T) (mkTfdt 0 0) [canon 0 []] ex]) by (destruct exs; eexists; reflexivity).
  destruct E as [ex E].
  destruct (history_single (fun dt => exists t, t < 18446744073709551616 /\ dt = set_base t) T ex ops _ _ _ cs fr
              (fun o Ho => ex_intro _ _ (conj (Hb o Ho) eq_refl)) (ex_intro _ 0 (conj eq_refl eq_refl)) E eq_refl H)
    as (A & B & dt & (t & Hbt & ->) & C).
  eauto 6.
Qed.

(* ------------------------------------------------------------------ the mdat per data mode *)
Definition is_lazy (o : op) : bool :=
  match o with OMeta _ _ | OMetas _ _ | OMetaTo _ _ _ => true | _ => false end.
Definition is_parts (o : op) : bool := match o with OInterval _ _ _ => true | _ => false end.

Lemma history_lazy_mdat ops : forall fr cs fr',
  forallb is_lazy ops = true -> run_ops fr ops = (cs, Some fr') ->
  md_data (fr_mdat fr') = md_data (fr_mdat fr) /\ md_parts (fr_mdat fr') = md_parts (fr_mdat fr) /\
  u64 (md_lazy (fr_mdat fr')) = u64 (md_lazy (fr_mdat fr) + sizes_sum (flat_map op_samples (accepted cs ops))) /\
  (md_lazy (fr_mdat fr) < 18446744073709551616 -> md_lazy (fr_mdat fr') < 18446744073709551616).
Proof.
  intros fr cs fr' Hf H. apply run_ops_runs_to in H.
  induction H as [fr|fr o fr1 ops cs fr' E _ IH|fr o ops cs fr' E _ IH]; cbn [accepted flat_map].
  - change (sizes_sum []) with 0. rewrite N.add_0_r. auto.
  - cbn [forallb] in Hf. apply andb_true_iff in Hf. destruct Hf as [Hf1 Hf2].
    destruct (IH Hf2) as (D & P & L & B). destruct (step_shape _ _ _ E) as (ts & n & -> & _). cbn [fr_with fr_mdat] in *.
    assert (L1 : md_lazy (md_step (fr_mdat fr) o) = u64 (md_lazy (fr_mdat fr) + sizes_sum (op_samples o))).
    { destruct o; try discriminate; cbn [md_step md_add_lazy md_lazy op_samples]; unfold sizes_sum; cbn [map sumN];
        rewrite ?N.add_0_r; [reflexivity..|]. unfold u64. rewrite N.add_mod_idemp_r by discriminate. reflexivity. }
    rewrite D, P, L, L1, u64_add_l. unfold sizes_sum. rewrite map_app, sumN_app, N.add_assoc.
    repeat split; try (destruct o; try discriminate; reflexivity). intros _. apply B. rewrite L1. apply u64_lt.
  - cbn [forallb] in Hf. apply andb_true_iff in Hf. exact (IH (proj2 Hf)).
Qed.

Lemma history_parts_mdat ops : forall fr cs fr',
  forallb is_parts ops = true -> run_ops fr ops = (cs, Some fr') -> md_data (fr_mdat fr) = [] ->
  md_data (fr_mdat fr') = [] /\
  concat (md_parts (fr_mdat fr')) = concat (md_parts (fr_mdat fr)) ++ flat_map op_data (accepted cs ops) /\
  md_lazy (fr_mdat fr') = md_lazy (fr_mdat fr).
Proof.
  intros fr cs fr' Hf H. apply run_ops_runs_to in H.
  induction H as [fr|fr o fr1 ops cs fr' E _ IH|fr o ops cs fr' E _ IH]; intros H0; cbn [accepted flat_map].
  - rewrite app_nil_r. auto.
  - cbn [forallb] in Hf. apply andb_true_iff in Hf. destruct Hf as [Hf1 Hf2].
    destruct (step_shape _ _ _ E) as (ts & n & -> & _). cbn [fr_with fr_mdat] in *.
    destruct o; try discriminate. destruct (IH Hf2 eq_refl) as (D & P & L). cbn [md_step md_parts md_lazy op_data] in *.
    rewrite P, L, concat_app. cbn [concat]. rewrite app_nil_r, app_assoc. auto.
  - cbn [forallb] in Hf. apply andb_true_iff in Hf. exact (IH (proj2 Hf) H0).
Qed.

(* ------------------------------------------------------------------ the round trip, any data mode *)
Lemma retime_redate t t' FL : retime t (map (fun f => mkFull (fs_s f) t' (fs_data f)) FL) = retime t FL.
Proof. revert t. induction FL as [|f FL IH]; intros t; cbn [map retime fs_s fs_data]; [reflexivity|]. rewrite IH. reflexivity. Qed.

Lemma sumN_lenN_concat (ps : list (list N)) : sumN (map (fun p => lenN p) ps) = lenN (concat ps).
Proof. induction ps as [|p ps IH]; cbn [map sumN concat]; [reflexivity|]. rewrite lenN_app, IH. reflexivity. Qed.

(* whatever the mdat holds: the fragment reads back like the one with the same traf that holds the bytes its view
   exposes as plain data, which is the one-run instance of the multi-track invariant *)
Lemma roundtrip_single_core T fr t ex FL opt fe pos0 lz tx :
  FL <> [] -> Forall sized_f FL -> t < 18446744073709551616 ->
  fr_trafs fr = [mkTraf (create_tfhd T) (set_base t) [canon 0 (map fs_s FL)] ex] -> fr_next fr = 1 ->
  view_data fr lz = flat_map fs_data FL ->
  encode_frag opt fr = Ok fe ->
  moof_size fe + md_header_size (fr_mdat fe) + lenN (flat_map fs_data FL) < 2147483648 ->
  pos0 + fr_pre fe < 4611686018427387904 ->
  get_full_samples (decoded_view fe pos0 lz) (Some tx) = Ok (if tx_track tx =? T then retime t FL else []).
Proof.
  intros Hne Hsz Hbt Ht Hn Hview Henc Hguard Hpos.
  set (FL' := map (fun f => mkFull (fs_s f) t (fs_data f)) FL).
  set (a := mkFrag (fr_trafs fr) (mkMdat (flat_map fs_data FL) [] 0 false) 1 (fr_pre fr) (fr_moofx fr) (fr_post fr)).
  assert (HD' : flat_map fs_data FL' = flat_map fs_data FL).
  { unfold FL'. clear. induction FL as [|f FL IH]; [reflexivity|]. cbn [map flat_map fs_data]. rewrite IH. reflexivity. }
  assert (Hdt : tfdt_of FL' = set_base t /\ FL' <> []) by (unfold FL'; destruct FL; [congruence|split; [reflexivity|discriminate]]).
  assert (Hi : ginv [T] [(T, FL')] a).
  { apply sinv_ginv; [exact (proj2 Hdt)|]. unfold sinv, a. cbn [fr_trafs fr_next fr_mdat md_data md_parts md_lazy].
    rewrite (proj1 Hdt), HD', Ht. unfold FL'. rewrite map_map. repeat split. exists ex. reflexivity. }
  assert (Hsz' : sized [(T, FL')]).
  { constructor; [|constructor]. cbn [snd]. unfold FL'. apply Forall_forall. intros f Hf. apply in_map_iff in Hf.
    destruct Hf as (f0 & <- & Hf0). rewrite Forall_forall in Hsz. apply (Hsz f0 Hf0). }
  rewrite (roundtrip_ginv [T] [(T, FL')] a fr lz opt fe pos0 (Some tx) (tx_track tx)
             (ltac:(repeat constructor; intros []) : NoDup [T]) Hi Hsz' eq_refl); cbn [all_data track_fulls app];
    rewrite ?HD'; try assumption; try reflexivity.
  - rewrite (N.eqb_sym T). destruct (tx_track tx =? T); [|reflexivity]. rewrite (proj1 Hdt). f_equal. apply retime_redate.
  - destruct (T =? tx_track tx); [rewrite (proj1 Hdt); exact Hbt|cbn; lia].
Qed.

Definition mode_ok (ops : list op) (cs : list oclass) (FL : list fullsample) (lz : list N) : Prop :=
  (forallb is_full ops = true /\ lz = [] /\ flat_map fs_data FL = flat_map op_data (accepted cs ops)) \/
  (forallb is_lazy ops = true /\ lz = flat_map fs_data FL) \/
  (forallb is_parts ops = true /\ lz = [] /\ flat_map fs_data FL = flat_map op_data (accepted cs ops)).

(* the mdat a history in one data mode leaves: lazy size, and what the view exposes *)
Lemma mode_mdat T ops cs fr pre mx post exs FL lz :
  Forall (fun o => op_dts o < 18446744073709551616) ops ->
  run_ops (with_extras (create_fragment T) pre mx post exs) ops = (cs, Some fr) ->
  mode_ok ops cs FL lz -> map fs_s FL = added1 T ops -> Forall sized_f FL ->
  lenN (flat_map fs_data FL) < 18446744073709551616 ->
  view_data fr lz = flat_map fs_data FL /\
  md_lazy (fr_mdat fr) = lenN lz /\ (lz = [] -> md_written (fr_mdat fr) = flat_map fs_data FL) /\
  (lz <> [] -> md_written (fr_mdat fr) = []).
Proof.
  intros Hdts Hrun Hmode Hs Hsz Hb. unfold view_data, md_written.
  destruct Hmode as [(Hf & -> & HD)|[(Hf & ->)|(Hf & -> & HD)]].
  - destruct (history_full_mdat ops _ cs fr Hf Hrun) as (Da & Pa & La). rewrite Pa, (La eq_refl), Da, HD.
    repeat split; congruence.
  - destruct (history_lazy_mdat ops _ cs fr Hf Hrun) as (Da & Pa & La & Lb). rewrite Pa, Da.
    destruct (history_created T pre mx post exs ops cs fr Hdts Hrun) as (Hacc & _).
    rewrite Hacc in La. fold (added1 T ops) in La. rewrite <- Hs, (sizes_sum_sized _ Hsz) in La.
    cbn [with_extras create_fragment fr_mdat md_lazy md_data md_parts N.add] in *.
    rewrite !u64_small in La by (try apply Lb; lia). rewrite La.
    destruct (flat_map fs_data FL) as [|x D]; [repeat split; congruence|]. repeat split; congruence.
  - destruct (history_parts_mdat ops _ cs fr Hf Hrun eq_refl) as (Da & Pa & La). rewrite La, Da.
    cbn [with_extras create_fragment fr_mdat md_lazy md_parts concat app] in *. rewrite <- HD in Pa.
    destruct (md_parts (fr_mdat fr)); repeat split; try congruence; intros; exact Pa.
Qed.

Lemma roundtrip_single_modes T ops cs fr opt fe pos0 tx pre mx post exs FL lz :
  Forall (fun o => op_dts o < 18446744073709551616) ops ->
  run_ops (with_extras (create_fragment T) pre mx post exs) ops = (cs, Some fr) ->
  mode_ok ops cs FL lz ->
  map fs_s FL = added1 T ops -> Forall sized_f FL -> FL <> [] ->
  encode_frag opt fr = Ok fe ->
  moof_size fe + md_header_size (fr_mdat fe) + lenN (flat_map fs_data FL) < 2147483648 ->
  pos0 + fr_pre fe < 4611686018427387904 ->
  exists t ex,
    fr_trafs fr = [mkTraf (create_tfhd T) (set_base t) [canon 0 (added1 T ops)] ex] /\
    get_full_samples (decoded_view fe pos0 lz) (Some tx) = Ok (if tx_track tx =? T then retime t FL else []).
Proof.
  intros Hdts Hrun Hmode Hs Hsz Hne Henc Hguard Hpos.
  destruct (history_created T pre mx post exs ops cs fr Hdts Hrun) as (_ & Hn & t & ex & Hbt & Ht).
  exists t, ex. split; [exact Ht|]. rewrite <- Hs in Ht.
  apply (roundtrip_single_core T fr t ex FL opt fe pos0 lz tx); try assumption.
  exact (proj1 (mode_mdat T ops cs fr pre mx post exs FL lz Hdts Hrun Hmode Hs Hsz ltac:(lia))).
Qed.
