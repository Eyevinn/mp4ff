(* C05EncRoundProofs.v — reading back fragments built by histories that contain Encode calls: the round trip of
   C05RoundProofs re-derived from the simulation relation (the fragment need not be the canonical one any more:
   data offsets are stale, the first trun may have been optimised by an earlier Encode). *)
From V.lib Require Import Base.
From V.c05 Require Import C05Model C05FragModel C05OptProofs C05HistProofs C05OffProofs C05GhostProofs
  C05ReadProofs C05RoundProofs C05EncHistModel C05EncHistProofs.
From Coq Require Import Permutation.

Lemma all4_present r : all4 r = all_present r.
Proof. reflexivity. Qed.

(* the guard component: the decode side resolves such a trun to its own samples, for every trex *)
Lemma selfres_resolve h r tx : trun_selfres h r = true -> resolve h tx (wire_trun r) = tr_samples r.
Proof.
  unfold trun_selfres. intros H. rewrite !andb_true_iff in H. destruct H as [[[Hd Hs] Hc] Hf].
  assert (Hdur : forall s, In s (tr_samples r) ->
            (if has_dur r then s_dur s else fst (fst (defaults h tx))) = s_dur s).
  { intros s Hin. destruct (has_dur r); [reflexivity|]. cbn [orb] in Hd. rewrite forallb_forall in Hd.
    specialize (Hd s Hin). apply andb_true_iff in Hd. destruct Hd as [A B]. apply N.eqb_eq in B.
    unfold defaults. cbn [fst]. rewrite A. symmetry. exact B. }
  assert (Hsize : forall s, In s (tr_samples r) ->
            (if has_size r then s_size s else snd (fst (defaults h tx))) = s_size s).
  { intros s Hin. destruct (has_size r); [reflexivity|]. cbn [orb] in Hs. rewrite forallb_forall in Hs.
    specialize (Hs s Hin). apply andb_true_iff in Hs. destruct Hs as [A B]. apply N.eqb_eq in B.
    unfold defaults. cbn [fst snd]. rewrite A. symmetry. exact B. }
  assert (Hcto : forall s, In s (tr_samples r) -> (if has_cto r then s_cto s else 0%Z) = s_cto s).
  { intros s Hin. destruct (has_cto r); [reflexivity|]. cbn [orb] in Hc. rewrite forallb_forall in Hc.
    specialize (Hc s Hin). apply Z.eqb_eq in Hc. symmetry. exact Hc. }
  rewrite resolve_wire. apply map_first_id.
  - intros a t E. assert (Hin : In a (tr_samples r)) by (rewrite E; left; reflexivity).
    unfold rw, resolve_sample, wire_sample. destruct (defaults h tx) as [[dd ds] df] eqn:Ed.
    cbn [s_flags s_dur s_size s_cto negb orb].
    specialize (Hdur a Hin). specialize (Hsize a Hin). specialize (Hcto a Hin). cbn [fst snd] in Hdur, Hsize.
    transitivity (mkSample (s_flags a) (s_dur a) (s_size a) (s_cto a)); [|apply sample_eta]. f_equal.
    + revert Hf. destruct (has_sflags r); [reflexivity|]. cbn [orb]. rewrite E. intros Hf.
      apply andb_true_iff in Hf. destruct Hf as [Hf0 _]. rewrite andb_true_r.
      revert Hf0. destruct (has_fsf r); cbn [negb]; intros Hf0.
      * apply N.eqb_eq in Hf0. symmetry. exact Hf0.
      * apply andb_true_iff in Hf0. destruct Hf0 as [A B]. apply N.eqb_eq in B.
        unfold defaults in Ed. rewrite A in Ed. injection Ed as _ _ <-. symmetry. exact B.
    + revert Hdur. destruct (has_dur r); intros Hdur; [reflexivity|exact Hdur].
    + revert Hsize. destruct (has_size r); intros Hsize; [reflexivity|exact Hsize].
    + revert Hcto. destruct (has_cto r); intros Hcto; [reflexivity|exact Hcto].
  - intros a Hin0.
    assert (Hin : In a (tr_samples r)) by (destruct (tr_samples r); [destruct Hin0|right; exact Hin0]).
    unfold rw, resolve_sample, wire_sample. destruct (defaults h tx) as [[dd ds] df] eqn:Ed.
    cbn [s_flags s_dur s_size s_cto negb orb].
    specialize (Hdur a Hin). specialize (Hsize a Hin). specialize (Hcto a Hin). cbn [fst snd] in Hdur, Hsize.
    transitivity (mkSample (s_flags a) (s_dur a) (s_size a) (s_cto a)); [|apply sample_eta]. f_equal.
    + revert Hf. destruct (has_sflags r); [reflexivity|]. cbn [orb].
      destruct (tr_samples r) as [|s0 rest]; [destruct Hin0|]. cbn [tl] in Hin0. intros Hf.
      apply andb_true_iff in Hf. destruct Hf as [_ Hfr]. rewrite forallb_forall in Hfr. specialize (Hfr a Hin0).
      apply andb_true_iff in Hfr. destruct Hfr as [A B]. apply N.eqb_eq in B.
      unfold defaults in Ed. rewrite A in Ed. injection Ed as _ _ <-. symmetry. exact B.
    + revert Hdur. destruct (has_dur r); intros Hdur; [reflexivity|exact Hdur].
    + revert Hsize. destruct (has_size r); intros Hsize; [reflexivity|exact Hsize].
    + revert Hcto. destruct (has_cto r); intros Hcto; [reflexivity|exact Hcto].
Qed.

Lemma ropt_of_all4 h x y : all4 x = true -> rsim x y -> ropt h x y.
Proof.
  intros H (A & B & C). repeat split; try assumption. intros tx. rewrite <- B. apply resolve_all_present. exact H.
Qed.

Lemma Forall2_ropt_all4 h l1 l : Forall2 rsim l1 l -> forallb all4 l1 = true -> Forall2 (ropt h) l1 l.
Proof.
  intros H. induction H as [|x y l1 l Hxy H IH]; intros Ha; [constructor|].
  cbn [forallb] in Ha. apply andb_true_iff in Ha. destruct Ha as [A1 A2].
  constructor; [apply ropt_of_all4; assumption|apply IH; exact A2].
Qed.

Lemma tsim_all4_topt t1 t : tsimQ rsim hsim t1 t -> forallb all4 (tf_truns t1) = true -> topt t1 t.
Proof.
  intros (Hdt & (Hk & Hb) & Hr) Ha. unfold topt, track_of. repeat split; try assumption.
  apply Forall2_ropt_all4; assumption.
Qed.

Lemma Forall2_tsim_topt ts1 ts :
  Forall2 (tsimQ rsim hsim) ts1 ts -> forallb (fun t' => forallb all4 (tf_truns t')) ts1 = true -> Forall2 topt ts1 ts.
Proof.
  intros H. induction H as [|x y l1 l Hxy H IH]; intros Ha; [constructor|].
  cbn [forallb] in Ha. apply andb_true_iff in Ha. destruct Ha as [A1 A2].
  constructor; [apply tsim_all4_topt; assumption|apply IH; exact A2].
Qed.

(* the (possibly optimised) fragment the final Encode writes, against the fragment b the additions alone build *)
Lemma opt_first_gen fr b (opt : bool) fr1 :
  fsimW fr b -> enc_guard fr = true ->
  (if opt then optimize_first fr else Ok fr) = Ok fr1 ->
  Forall2 topt (fr_trafs fr1) (fr_trafs b) /\ msim (fr_mdat fr1) (fr_mdat b) /\ fr_pre fr1 = fr_pre b.
Proof.
  intros (HT & Hm & Hn & Hp) Hg H. unfold enc_guard in Hg.
  destruct (fr_trafs fr) as [|t ts] eqn:Et.
  { assert (fr1 = fr) as ->.
    { destruct opt; [|injection H as <-; reflexivity]. unfold optimize_first in H. rewrite Et in H. injection H as <-. reflexivity. }
    rewrite Et. destruct (fr_trafs b); inversion HT; subst. split; [constructor|split; assumption]. }
  apply andb_true_iff in Hg. destruct Hg as [Hg1 Hg2].
  destruct (fr_trafs b) as [|tb tsb] eqn:Eb; inversion HT as [|? ? ? ? Ht Hts]; subst.
  pose proof (Forall2_tsim_topt ts tsb Hts Hg2) as Hrest.
  pose proof Ht as (Hdt & (Hk & Hb) & Hr).
  destruct (tf_truns t) as [|r rs] eqn:Er.
  { assert (fr1 = fr) as ->.
    { destruct opt; [|injection H as <-; reflexivity]. unfold optimize_first in H. rewrite Et, Er in H. injection H as <-. reflexivity. }
    rewrite Et. split; [|split; assumption]. constructor; [|exact Hrest].
    unfold topt, track_of. rewrite Er. destruct (tf_truns tb); inversion Hr; subst. repeat split; try assumption. constructor. }
  apply andb_true_iff in Hg1. destruct Hg1 as [Hsr Hrs4].
  destruct (tf_truns tb) as [|rb rsb] eqn:Erb; inversion Hr as [|? ? ? ? Hq Hrs]; subst.
  destruct opt.
  - unfold optimize_first in H. rewrite Et, Er in H.
    destruct (optimize (tf_hd t) r) as [[h' r']| | |] eqn:Eo; try discriminate. cbn [rbind] in H. injection H as <-.
    pose proof (optimize_frame _ _ _ _ _ Eo) as (F1 & F2 & F3 & F4 & F5). cbn [fst snd] in *.
    cbn [fr_with fr_trafs fr_mdat fr_pre]. split; [|split; assumption]. constructor; [|exact Hrest].
    unfold topt, track_of. cbn [tf_dt tf_hd tf_truns]. rewrite Erb. split; [exact Hdt|]. split; [congruence|]. split; [congruence|].
    destruct Hq as (A & B & C). constructor.
    + repeat split; try congruence. intros tx.
      rewrite (optimize_preserves_resolve _ _ tx _ _ Eo), <- B. apply selfres_resolve. exact Hsr.
    + apply Forall2_ropt_all4; assumption.
  - injection H as <-. rewrite Et. split; [|split; assumption]. constructor; [|exact Hrest].
    unfold topt, track_of. rewrite Er, Erb. split; [exact Hdt|]. split; [exact Hk|]. split; [exact Hb|].
    destruct Hq as (A & B & C). constructor.
    + repeat split; try assumption. intros tx. rewrite <- B. apply selfres_resolve. exact Hsr.
    + apply Forall2_ropt_all4; assumption.
Qed.

(* roundtrip_ginv of C05RoundProofs for such a fragment *)
Lemma roundtrip_gen tracks g b fr opt fe pos0 otx T :
  NoDup tracks -> ginv tracks g b -> sized g -> fsimW fr b -> enc_guard fr = true ->
  encode_frag opt fr = Ok fe ->
  let A := track_fulls T g in
  moof_size fe + md_header_size (fr_mdat fe) + lenN (all_data g) < 2147483648 ->
  pos0 + fr_pre fe < 4611686018427387904 ->
  picks otx tracks T ->
  td_base (tfdt_of A) < 18446744073709551616 ->
  get_full_samples (decoded_view fe pos0 []) otx = Ok (retime (td_base (tfdt_of A)) A).
Proof.
  intros Hnd Hi Hs Hsim Hgd Henc. destruct (encode_frag_inv _ _ _ Henc) as (fr1 & E1 & ->).
  destruct (opt_first_gen fr b opt fr1 Hsim Hgd E1) as (HT & (Ed & Epa & El) & _).
  apply (roundtrip_core tracks g b fr1); try assumption.
  destruct Hi as (_ & _ & _ & _ & Hdat & Hpar & Hlaz). unfold view_data, md_written. rewrite El, Epa, Ed, Hlaz, Hpar. exact Hdat.
Qed.

(* ------------------------------------------------------------------ statements over histories with Encode calls *)

(* any Encode calls in the middle of a history of AddFullSampleToTrack on a fragment b0 without samples, under the guard *)
Lemma roundtrip_encodes_guarded tracks hs cs b0 fr opt fe pos0 otx T :
  NoDup tracks -> N.of_nat (length (adds hs)) < 4294967296 -> forallb is_full_to (adds hs) = true ->
  Forall (fun o => sized_f (op_full o)) (adds hs) ->
  ginv tracks [] b0 -> run_hops b0 hs = (cs, Some fr) ->
  enc_guard fr = true ->
  encode_frag opt fr = Ok fe ->
  moof_size fe + md_header_size (fr_mdat fe) + lenN (md_data (fr_mdat fr)) < 2147483648 ->
  pos0 + fr_pre fe < 4611686018427387904 ->
  picks otx tracks T -> consistent (added_fulls tracks T (adds hs)) ->
  get_full_samples (decoded_view fe pos0 []) otx = Ok (added_fulls tracks T (adds hs)).
Proof.
  intros Hnd Hlen Hfull Hsz H0 Hrun Hgd Henc Hguard Hpos Hpick Hcons.
  destruct (hops_simW hs b0 b0 cs fr (fsimW_refl b0) Hrun) as (b & Hb & Hsim).
  pose proof (ghost_ginv tracks (adds hs) _ b0 b Hnd Hlen Hfull H0 Hb) as Hi.
  assert (Hs : sized (ghost tracks [] (adds hs))) by (apply ghost_sized; [constructor|exact Hsz]).
  pose proof Hi as (_ & _ & _ & _ & Hdat & _). pose proof Hsim as (_ & (Hmd & _) & _).
  pose proof (track_fulls_ghost tracks T (adds hs) []) as HA. cbn [track_fulls app] in HA.
  destruct (retime_consistent _ Hcons) as [Hbt Hre]. rewrite <- HA in Hbt, Hre. rewrite Hmd, Hdat in Hguard.
  rewrite (roundtrip_gen tracks _ b fr opt fe pos0 otx T Hnd Hi Hs Hsim Hgd Henc Hguard Hpos Hpick Hbt). rewrite Hre, HA. reflexivity.
Qed.

Lemma all4_selfres h r : all4 r = true -> trun_selfres h r = true.
Proof.
  unfold all4, trun_selfres. intros H. rewrite !andb_true_iff in H. destruct H as [[[H1 H2] H3] H4].
  rewrite H1, H2, H3, H4. reflexivity.
Qed.

Lemma eqd_all4 x y : eqd x y -> all_present y = true -> all4 x = true.
Proof.
  intros H Hy. destruct (eqd_rsim x y H) as [_ Ef].
  unfold all4, all_present, has_dur, has_size, has_sflags, has_cto in *. rewrite Ef. exact Hy.
Qed.

Lemma Forall2_eqd_all4 l1 l : Forall2 eqd l1 l -> Forall (fun r => all_present r = true) l -> forallb all4 l1 = true.
Proof.
  intros H. induction H as [|x y l1 l Hxy H IH]; intros Hp; [reflexivity|].
  inversion Hp as [|? ? Hy Hp']; subst. cbn [forallb]. rewrite (eqd_all4 x y Hxy Hy), (IH Hp'). reflexivity.
Qed.

Lemma fsimS_all4 ts1 ts :
  Forall2 (tsimQ eqd (@eq tfhd)) ts1 ts ->
  Forall (fun t => Forall (fun r => all_present r = true) (tf_truns t)) ts ->
  forallb (fun t' => forallb all4 (tf_truns t')) ts1 = true.
Proof.
  intros H. induction H as [|x y l1 l (_ & _ & Hxy) H IH]; intros Hp; [reflexivity|].
  inversion Hp as [|? ? Hy Hp']; subst. cbn [forallb]. rewrite (Forall2_eqd_all4 _ _ Hxy Hy), (IH Hp'). reflexivity.
Qed.

(* plain Encodes never invalidate the guard *)
Lemma fsimS_guard tracks g fr b : fsimS fr b -> ginv tracks g b -> enc_guard fr = true.
Proof.
  intros (HT & _) Hi. pose proof (ginv_present tracks g b Hi) as Hp.
  pose proof (fsimS_all4 _ _ HT Hp) as Hall. unfold enc_guard.
  destruct (fr_trafs fr) as [|t ts]; [reflexivity|]. cbn [forallb] in Hall. apply andb_true_iff in Hall.
  destruct Hall as [H1 H2]. rewrite H2, andb_true_r.
  destruct (tf_truns t) as [|r rs]; [reflexivity|]. cbn [forallb] in H1. apply andb_true_iff in H1.
  destruct H1 as [H1 H3]. rewrite H3, andb_true_r. apply all4_selfres. exact H1.
Qed.

(* ... so a history with plain Encodes only reaches a fragment that satisfies it *)
Lemma plain_guard tracks hs cs b0 fr :
  NoDup tracks -> N.of_nat (length (adds hs)) < 4294967296 -> forallb is_full_to (adds hs) = true ->
  ginv tracks [] b0 -> plain hs = true -> run_hops b0 hs = (cs, Some fr) -> enc_guard fr = true.
Proof.
  intros Hnd Hlen Hfull H0 Hpl Hrun. destruct (hops_simS hs b0 b0 cs fr Hpl (fsimS_refl b0) Hrun) as (b & Hb & Hsim).
  exact (fsimS_guard tracks _ fr b Hsim (ghost_ginv tracks (adds hs) _ b0 b Hnd Hlen Hfull H0 Hb)).
Qed.

(* single-track fragments: CreateFragment, AddFullSample / AddFullSampleToTrack interleaved with plain Encodes *)
Lemma roundtrip_encodes_single T hs cs fr opt fe pos0 tx pre mx post exs :
  N.of_nat (length (adds hs)) < 4294967296 -> forallb is_full (adds hs) = true ->
  Forall (fun o => sized_f (op_full o)) (adds hs) ->
  plain hs = true ->
  run_hops (with_extras (create_fragment T) pre mx post exs) hs = (cs, Some fr) ->
  encode_frag opt fr = Ok fe ->
  added1_fulls T (adds hs) <> [] ->
  moof_size fe + md_header_size (fr_mdat fe) + lenN (md_data (fr_mdat fr)) < 2147483648 ->
  pos0 + fr_pre fe < 4611686018427387904 ->
  consistent (added1_fulls T (adds hs)) ->
  get_full_samples (decoded_view fe pos0 []) (Some tx) =
    Ok (if tx_track tx =? T then added1_fulls T (adds hs) else []).
Proof.
  intros Hlen Hfull Hsz Hpl Hrun Henc Hne Hguard Hpos Hcons.
  set (fr0 := with_extras (create_fragment T) pre mx post exs) in *.
  destruct (hops_simS hs fr0 fr0 cs fr Hpl (fsimS_refl fr0) Hrun) as (b & Hb & Hsim).
  pose proof (history_sinv T (adds hs) [] _ _ b ltac:(change (lenN (@nil fullsample)) with 0; lia) Hfull
                (create_fragment_sinv T pre mx post exs) Hb) as Hsi. cbn [app] in Hsi.
  pose proof (sinv_ginv T _ b Hne Hsi) as Hi.
  assert (Hs : sized [(T, added1_fulls T (adds hs))]).
  { constructor; [|constructor]. cbn [snd]. unfold added1_fulls. apply Forall_forall. intros f Hf.
    apply in_map_iff in Hf. destruct Hf as (o & <- & Ho). apply filter_In in Ho.
    rewrite Forall_forall in Hsz. apply Hsz. exact (proj1 Ho). }
  pose proof Hi as (_ & _ & _ & _ & Hdat & _).
  pose proof (fsimS_W _ _ Hsim) as HsimW. pose proof HsimW as (_ & (Hmd & _) & _). rewrite Hmd, Hdat in Hguard.
  destruct (retime_consistent _ Hcons) as [Hbt Hre].
  rewrite (roundtrip_gen [T] _ b fr opt fe pos0 (Some tx) (tx_track tx) (ltac:(repeat constructor; intros []) : NoDup [T]) Hi Hs HsimW
             (fsimS_guard [T] _ fr b Hsim Hi) Henc Hguard Hpos eq_refl); cbn [track_fulls app].
  - rewrite (N.eqb_sym T). destruct (tx_track tx =? T); [rewrite Hre|]; reflexivity.
  - destruct (T =? tx_track tx); [exact Hbt|cbn; lia].
Qed.

(* ------------------------------------------------------------------ the refutation: finding C05-F10 *)
(* CreateMultiTrackFragment(1,[1]); two samples of duration 10; Encode with OptimizeTrun (the trun loses its
   duration field, tfhd default duration 10); a third sample of duration 20; Encode: the guard is false and the
   third sample reads back with duration 10 *)
Definition f10_s (dur : N) : sample := mkSample 16842752 dur 1 0.
Definition f10_hs : list hop :=
  [HAdd (OFullTo 1 (f10_s 10) 0 [1]); HAdd (OFullTo 1 (f10_s 10) 10 [2]); HEnc true; HAdd (OFullTo 1 (f10_s 20) 20 [3])].
