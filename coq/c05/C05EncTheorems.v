(* C05EncTheorems.v — the property theorems of C05 about Encode calls INSIDE the histories (Fragment.Encode is a state
   transformer), the guard of DecodeTrun against optimised truns of any flag word, and the base of the data offsets.
   Each follows in a line or two from the general
   lemmas of the proofs files (the witnesses are given here) and is followed by Print Assumptions (audited by ./check on every run). *)
From V.lib Require Import Base.
From V.c05 Require Import C05Model C05FragModel C05OptProofs C05HistProofs C05GhostProofs C05ReadProofs C05RoundProofs
  C05CodecModel C05CodecProofs C05EncHistModel C05EncHistProofs C05EncRoundProofs C05EncCodecProofs
  C05SegModel C05SegProofs C05EncSegProofs C05SingleProofs C05EncInvisProofs C05EncGuardProofs.

(* C05_roundtrip for histories in which the sample additions are INTERLEAVED WITH Encode calls (run_hops: every Encode
   runs SetTrunDataOffsets and MdatBox.Size on the live fragment, the additions that follow see that state; encode_state
   mirrors Fragment.Encode + MoofBox.Encode after fix 1704b4c).  As long as every Encode in the middle is a plain one (no
   OptimizeTrun), the LAST Encode decides: the decoded fragment reads back exactly the added samples, for every
   multi-track fragment, every interleaving, optimisation on or off in the final Encode, any extra boxes, any trex. *)
Theorem C05_roundtrip_with_encodes : forall tracks pre mx post exs hs cs fr opt fe pos0 tx,
  NoDup tracks -> N.of_nat (length (adds hs)) < 4294967296 -> forallb is_full_to (adds hs) = true ->
  Forall (fun o => sized_f (op_full o)) (adds hs) ->
  plain hs = true ->
  run_hops (with_extras (create_multi tracks) pre mx post exs) hs = (cs, Some fr) ->
  encode_frag opt fr = Ok fe ->
  moof_size fe + md_header_size (fr_mdat fe) + lenN (md_data (fr_mdat fr)) < 2147483648 ->
  pos0 + fr_pre fe < 4611686018427387904 ->
  consistent (added_fulls tracks (tx_track tx) (adds hs)) ->
  get_full_samples (decoded_view fe pos0 []) (Some tx) = Ok (added_fulls tracks (tx_track tx) (adds hs)).
Proof.
  intros tracks pre mx post exs hs cs fr opt fe pos0 tx Hnd Hlen Hfull Hsz Hpl Hrun.
  pose proof (create_multi_extras_ginv tracks pre mx post exs Hnd) as H0. intros.
  apply (roundtrip_encodes_guarded tracks hs cs _ fr opt fe pos0 (Some tx) (tx_track tx) Hnd Hlen Hfull Hsz H0 Hrun); try assumption; try reflexivity.
  exact (plain_guard tracks hs cs _ fr Hnd Hlen Hfull H0 Hpl Hrun).
Qed.
Print Assumptions C05_roundtrip_with_encodes.

(* trex == nil *)
Theorem C05_roundtrip_with_encodes_nil : forall T0 rest pre mx post exs hs cs fr opt fe pos0,
  let tracks := T0 :: rest in
  NoDup tracks -> N.of_nat (length (adds hs)) < 4294967296 -> forallb is_full_to (adds hs) = true ->
  Forall (fun o => sized_f (op_full o)) (adds hs) ->
  plain hs = true ->
  run_hops (with_extras (create_multi tracks) pre mx post exs) hs = (cs, Some fr) ->
  encode_frag opt fr = Ok fe ->
  moof_size fe + md_header_size (fr_mdat fe) + lenN (md_data (fr_mdat fr)) < 2147483648 ->
  pos0 + fr_pre fe < 4611686018427387904 ->
  consistent (added_fulls tracks T0 (adds hs)) ->
  get_full_samples (decoded_view fe pos0 []) None = Ok (added_fulls tracks T0 (adds hs)).
Proof.
  intros T0 rest pre mx post exs hs cs fr opt fe pos0 tracks Hnd Hlen Hfull Hsz Hpl Hrun.
  pose proof (create_multi_extras_ginv tracks pre mx post exs Hnd) as H0. intros.
  apply (roundtrip_encodes_guarded tracks hs cs _ fr opt fe pos0 None T0 Hnd Hlen Hfull Hsz H0 Hrun); try assumption; [|exists rest; reflexivity].
  exact (plain_guard tracks hs cs _ fr Hnd Hlen Hfull H0 Hpl Hrun).
Qed.
Print Assumptions C05_roundtrip_with_encodes_nil.

(* single-track fragments (CreateFragment; AddFullSample / AddFullSampleToTrack interleaved with plain Encodes) *)
Theorem C05_roundtrip_with_encodes_single : forall T hs cs fr opt fe pos0 tx pre mx post exs,
  N.of_nat (length (adds hs)) < 4294967296 -> forallb is_full (adds hs) = true ->
  Forall (fun o => sized_f (op_full o)) (adds hs) ->
  plain hs = true ->
  run_hops (with_extras (create_fragment T) pre mx post exs) hs = (cs, Some fr) ->
  encode_frag opt fr = Ok fe ->
  added1_fulls T (adds hs) <> [] ->
  moof_size fe + md_header_size (fr_mdat fe) + lenN (md_data (fr_mdat fr)) < 2147483648 ->
  pos0 + fr_pre fe < 4611686018427387904 ->
  consistent (added1_fulls T (adds hs)) ->
  get_full_samples (decoded_view fe pos0 []) (Some tx) =
    Ok (if tx_track tx =? T then added1_fulls T (adds hs) else []).
Proof. exact roundtrip_encodes_single. Qed.
Print Assumptions C05_roundtrip_with_encodes_single.

(* the general form, for ANY starting fragment and ALL SIX add operations: plain Encodes in the middle are INVISIBLE to
   the final Encode.  The history accepts / refuses the same additions as the additions alone (add_classes), reaches their
   fragment up to the data offsets (fsimS), and the final Encode (which rewrites every data offset: the write-order
   numbers of the encode-free fragment are pairwise different) returns THE SAME encoded fragment, unless an Encode in the
   middle saw a payload above 4 GiB - 9 and left the mdat marked large-size.  Every theorem of C05Theorems.v /
   C05SegTheorems.v about `encode_frag opt fr` of an encode-free history transfers by rewriting. *)
Theorem C05_plain_encodes_invisible : forall hs a cs a',
  plain hs = true -> run_hops a hs = (cs, Some a') ->
  exists b, run_ops a (adds hs) = (add_classes hs cs, Some b) /\ fsimS a' b /\
    (md_large (fr_mdat a') = md_large (fr_mdat a) ->
     NoDup (map tr_won (all_truns (fr_trafs b))) ->
     forall opt, encode_frag opt a' = encode_frag opt b).
Proof. exact plain_encodes_invisible. Qed.
Print Assumptions C05_plain_encodes_invisible.

(* ... applied to C05_roundtrip_single_modes: single-track fragments under ALL SIX add operations (one data mode per
   fragment: full samples / metadata-only with the caller's data lz / sample intervals) interleaved with plain Encodes *)
Theorem C05_roundtrip_with_encodes_modes : forall T hs cs fr opt fe pos0 tx pre mx post exs FL lz,
  Forall (fun o => op_dts o < 18446744073709551616) (adds hs) ->
  plain hs = true ->
  run_hops (with_extras (create_fragment T) pre mx post exs) hs = (cs, Some fr) ->
  md_large (fr_mdat fr) = false ->
  mode_ok (adds hs) (add_classes hs cs) FL lz ->
  map fs_s FL = added1 T (adds hs) -> Forall sized_f FL -> FL <> [] ->
  encode_frag opt fr = Ok fe ->
  moof_size fe + md_header_size (fr_mdat fe) + lenN (flat_map fs_data FL) < 2147483648 ->
  pos0 + fr_pre fe < 4611686018427387904 ->
  exists t,
    map tf_dt (fr_trafs fr) = [set_base t] /\
    get_full_samples (decoded_view fe pos0 lz) (Some tx) = Ok (if tx_track tx =? T then retime t FL else []).
Proof. exact roundtrip_encodes_single_modes. Qed.
Print Assumptions C05_roundtrip_with_encodes_modes.

(* ANY Encode calls in the middle, also with OptimizeTrun (which rewrites the flag word of the first trun and the
   tfhd defaults in place): the round trip holds under enc_guard on the state the final Encode sees = the first trun of
   the first traf still resolves to its own samples under its flag word and the tfhd defaults (trun_selfres: a sample
   added after the optimised Encode must agree with the default of every field the trun no longer carries), every
   other trun still announces all four fields.  Structure level (wire view of the truns), as C05_roundtrip. *)
Theorem C05_roundtrip_with_encodes_guarded : forall tracks pre mx post exs hs cs fr opt fe pos0 tx,
  NoDup tracks -> N.of_nat (length (adds hs)) < 4294967296 -> forallb is_full_to (adds hs) = true ->
  Forall (fun o => sized_f (op_full o)) (adds hs) ->
  run_hops (with_extras (create_multi tracks) pre mx post exs) hs = (cs, Some fr) ->
  enc_guard fr = true ->
  encode_frag opt fr = Ok fe ->
  moof_size fe + md_header_size (fr_mdat fe) + lenN (md_data (fr_mdat fr)) < 2147483648 ->
  pos0 + fr_pre fe < 4611686018427387904 ->
  consistent (added_fulls tracks (tx_track tx) (adds hs)) ->
  get_full_samples (decoded_view fe pos0 []) (Some tx) = Ok (added_fulls tracks (tx_track tx) (adds hs)).
Proof.
  intros tracks pre mx post exs hs cs fr opt fe pos0 tx Hnd Hlen Hfull Hsz Hrun. intros.
  apply (roundtrip_encodes_guarded tracks hs cs _ fr opt fe pos0 (Some tx) (tx_track tx) Hnd Hlen Hfull Hsz
           (create_multi_extras_ginv tracks pre mx post exs Hnd) Hrun); try assumption; reflexivity.
Qed.
Print Assumptions C05_roundtrip_with_encodes_guarded.

(* ... and the second half of enc_guard is an invariant (others4: OptimizeTfhdTrun only ever touches the first trun of
   the first traf; every other trun keeps CreateTrun's flag word through any history with any Encodes), so the guard is
   the FIRST trun's alone (first_selfres), and C05_encodes_opt_refuted below shows it cannot be dropped *)
Theorem C05_encodes_others_keep_fields : forall hs a cs a',
  others4 a = true -> run_hops a hs = (cs, Some a') -> others4 a' = true.
Proof. exact hops_others. Qed.
Print Assumptions C05_encodes_others_keep_fields.

Theorem C05_roundtrip_with_encodes_first : forall tracks pre mx post exs hs cs fr opt fe pos0 tx,
  NoDup tracks -> N.of_nat (length (adds hs)) < 4294967296 -> forallb is_full_to (adds hs) = true ->
  Forall (fun o => sized_f (op_full o)) (adds hs) ->
  run_hops (with_extras (create_multi tracks) pre mx post exs) hs = (cs, Some fr) ->
  first_selfres fr = true ->
  encode_frag opt fr = Ok fe ->
  moof_size fe + md_header_size (fr_mdat fe) + lenN (md_data (fr_mdat fr)) < 2147483648 ->
  pos0 + fr_pre fe < 4611686018427387904 ->
  consistent (added_fulls tracks (tx_track tx) (adds hs)) ->
  get_full_samples (decoded_view fe pos0 []) (Some tx) = Ok (added_fulls tracks (tx_track tx) (adds hs)).
Proof.
  intros tracks pre mx post exs hs cs fr opt fe pos0 tx Hnd Hlen Hfull Hsz Hrun Hfs. intros.
  apply (roundtrip_encodes_guarded tracks hs cs _ fr opt fe pos0 (Some tx) (tx_track tx) Hnd Hlen Hfull Hsz
           (create_multi_extras_ginv tracks pre mx post exs Hnd) Hrun); try assumption; try reflexivity.
  rewrite enc_guard_split, Hfs. exact (hops_others hs _ cs fr (create_multi_others tracks pre mx post exs) Hrun).
Qed.
Print Assumptions C05_roundtrip_with_encodes_first.

(* the guard is what fails in finding C05-F10 (known): two samples of duration 10, Encode with OptimizeTrun, a third
   sample of duration 20, Encode: enc_guard is false and the third sample reads back with duration 10 *)
Theorem C05_encodes_opt_refuted :
  exists cs fr fe l,
    plain f10_hs = false /\
    run_hops (with_extras (create_multi [1]) 0 0 0 []) f10_hs = (cs, Some fr) /\
    enc_guard fr = false /\
    encode_frag false fr = Ok fe /\
    get_full_samples (decoded_view fe 0 []) (Some (mkTrex 1 0 0 0)) = Ok l /\
    l = [mkFull (f10_s 10) 0 [1]; mkFull (f10_s 10) 10 [2]; mkFull (f10_s 10) 20 [3]] /\
    l <> added_fulls [1] 1 (adds f10_hs).
Proof.
  eexists; eexists; eexists; eexists. split; [reflexivity|]. split; [vm_compute; reflexivity|].
  split; [vm_compute; reflexivity|]. split; [vm_compute; reflexivity|]. split; [vm_compute; reflexivity|].
  split; [reflexivity|]. vm_compute. discriminate.
Qed.
Print Assumptions C05_encodes_opt_refuted.

(* the simulation behind the theorems above, for ANY starting fragment and ALL SIX add operations: a history with
   Encode calls accepts / refuses / panics on the same additions as the additions alone and reaches a fragment that
   differs from theirs at most in data offsets, the large-size mark and (after optimised Encodes) flag word + tfhd
   defaults: same write-order numbers, same samples per trun, same tfdt, same track ids, same mdat contents, same
   nextTrunNr *)
Theorem C05_encodes_simulation : forall hs a cs a',
  run_hops a hs = (cs, Some a') ->
  exists b', run_ops a (adds hs) = (add_classes hs cs, Some b') /\ fsimW a' b'.
Proof. intros hs a cs a'. intros H. exact (hops_simW hs a a cs a' (fsimW_refl a) H). Qed.
Print Assumptions C05_encodes_simulation.

(* the final Encode of the theorems is the same state transformer *)
Theorem C05_encode_frag_state : forall opt fr fe, encode_frag opt fr = Ok fe -> encode_state opt fr = (COk, Some fe).
Proof.
  intros opt fr fe.
  unfold encode_frag, encode_state. destruct (if opt then optimize_first fr else Ok fr) as [fr1| | |]; try discriminate.
  cbn [rbind]. cbn zeta. destruct (fr_trafs (set_offsets fr1)) as [|t ts] eqn:Et; [discriminate|].
  unfold all_truns in *. cbn [flat_map]. rewrite existsb_app.
  destruct (existsb doff_unset (tf_truns t)); [discriminate|]. cbn [orb].
  destruct (existsb doff_unset (flat_map tf_truns ts)); [discriminate|]. intros [= <-]. reflexivity.
Qed.
Print Assumptions C05_encode_frag_state.

(* ---------------------------------------------------------------- DecodeTrun's 1024 guard, any flag word *)
(* C05_optimized_trun_decodes for EVERY trun that has the composition-offset field, whatever its other flags (the
   all_present hypothesis is not needed): the bytes of the optimised trun decode, for any number of samples *)
Theorem C05_optimized_trun_decodes_cto : forall tf tr tf' tr' d,
  has_cto tr = true -> optimize tf tr = Ok (tf', tr') -> trun_fields_wf (tr_with_doff tr' d) = true ->
  dec_trun (trun_size (tr_with_doff tr' d)) (enc_trun_body (tr_with_doff tr' d)) = Ok (wire_trun (tr_with_doff tr' d)).
Proof.
  intros tf tr tf' tr' d.
  intros Hc Ho Hw. apply dec_enc_trun. apply trun_wf_of_bare; [exact Hw|].
  assert (Hb : bare_ok tr = true) by (unfold bare_ok; rewrite Hc; apply orb_true_r).
  exact (optimize_bare _ _ _ _ Hc Hb Ho).
Qed.
Print Assumptions C05_optimized_trun_decodes_cto.

(* ... and the hypothesis is exact: a trun WITHOUT that field (flags 0x701) with 1025 equal samples is optimised to no
   per-sample field and refused.  CreateTrun always sets 0xf01, so within the property's histories (additions, then
   ONE Encode) such a trun does not occur; it does occur through the API after an EARLIER Encode with OptimizeTrun: *)
Theorem C05_optimized_trun_nocto_refuted : exists tf tr tf' tr',
  has_cto tr = false /\ has_dur tr && has_size tr && has_sflags tr = true /\
  forallb sample_wf (tr_samples tr) = true /\
  optimize tf tr = Ok (tf', tr') /\
  dec_trun (trun_size (tr_with_doff tr' 100)) (enc_trun_body (tr_with_doff tr' 100)) = Err.
Proof.
  exists (create_tfhd 1), (mkTrun 1 1793 0 0 (repeat bare_s 1025) 0),
         (mkTfhd 131128 1 0 1 10 1 16842752), (mkTrun 1 1 0 0 (repeat bare_s 1025) 0).
  repeat apply conj; vm_compute; reflexivity.
Qed.
Print Assumptions C05_optimized_trun_nocto_refuted.

(* CreateFragment; 2 equal samples; Encode with OptimizeTrun; 1023 more equal samples; Encode: enc_guard holds (all
   values are the defaults), the trun written has 1025 samples and flags 0x001 and DecodeTrun refuses it (reproduced on
   the real code: search probe:bareafteropt; same class as the known finding C05-F10, outside the quantifier) *)
Theorem C05_encodes_opt_bare_refuted :
  exists cs fr fe t r,
    run_hops (create_fragment 1) bare_hs = (cs, Some fr) /\
    enc_guard fr = true /\
    encode_frag true fr = Ok fe /\
    fr_trafs fe = [t] /\ tf_truns t = [r] /\ length (tr_samples r) = 1025%nat /\ tr_flags r = 1 /\
    forallb sample_wf (tr_samples r) = true /\
    dec_trun (trun_size r) (enc_trun_body r) = Err.
Proof. exact encodes_opt_bare_refuted. Qed.
Print Assumptions C05_encodes_opt_bare_refuted.

(* ---------------------------------------------------------------- the base of the data offsets *)
(* GetFullSamples resolves the trun data offsets against moof.StartPos (df_moof_start = position of the moof box =
   pos0 + size of the boxes that precede it in the fragment), NOT against the start of the fragment: with the fragment
   start as the base (with_base ... pos0) a fragment with a 60-byte emsg in front of its moof does not read back *)
Theorem C05_base_is_moof_start :
  (forall d, with_base d (df_moof_start d) = d) /\
  (forall fe pos0 lz, df_moof_start (decoded_view fe pos0 lz) = pos0 + fr_pre fe) /\
  exists cs fr fe,
    let ops := [OFullTo 1 (f10_s 10) 0 [7]] in
    run_ops (with_extras (create_multi [1]) 60 0 0 []) ops = (cs, Some fr) /\
    encode_frag false fr = Ok fe /\ fr_pre fe = 60 /\
    get_full_samples (decoded_view fe 1000 []) (Some (mkTrex 1 0 0 0)) = Ok (added_fulls [1] 1 ops) /\
    get_full_samples (with_base (decoded_view fe 1000 []) 1000) (Some (mkTrex 1 0 0 0)) <> Ok (added_fulls [1] 1 ops).
Proof.
  split; [intros []; reflexivity|]. split; [reflexivity|].
  eexists; eexists; eexists. cbn zeta. split; [vm_compute; reflexivity|]. split; [vm_compute; reflexivity|].
  split; [reflexivity|]. split; [vm_compute; reflexivity|]. vm_compute. discriminate.
Qed.
Print Assumptions C05_base_is_moof_start.

(* the same at the level of a DECODED segment (any head, any fragments with emsg / other boxes before the moof, after the
   mdat and between the fragments): the base of every decoded fragment is the stream position of ITS MOOF BOX
   (moof_starts = position of the fragment's first box + sizes of the boxes in front of the moof, moof_starts_frag_starts),
   and Fragment.GetFullSamples on it is get_full_samples with exactly that base: the segment theorems
   (C05_segment_roundtrip_emsg, _any, ...) read through seg_get_full, so they are statements about this base *)
Theorem C05_segment_base_is_moof_start : forall head its b pos0,
  head_ok head = true -> forallb item_kinds its = true ->
  exists st, seg_decode b pos0 (seg_stream head its) = Ok st /\
             map dfr_base (file_frags st) = map Some (moof_starts (pos0 + xsum head) its) /\
             (forall f tx start trafs pabs data,
                In f (file_frags st) -> dr_moof f = Some (start, trafs) -> dr_mdat f = Some (pabs, data) ->
                seg_get_full f tx = get_full_samples (with_base (mkDfrag trafs data 0 pabs) start) tx).
Proof. exact segment_base_is_moof_start. Qed.
Print Assumptions C05_segment_base_is_moof_start.

(* the hypotheses of C05_roundtrip_with_encodes are satisfiable by a non-trivial history: three tracks, a plain Encode
   after the second addition (one trun exists, its offset is written), one after the fourth (three truns), an unknown
   id, optimisation in the final Encode; the conclusion is also checked by computation *)
Example C05_roundtrip_with_encodes_ex :
  let s k := mkSample 16842752 10 k 0 in
  let hs := [HAdd (OFullTo 2 (s 1) 100 [1]); HAdd (OFullTo 2 (s 2) 110 [2;3]); HEnc false; HAdd (OFullTo 1 (s 1) 0 [4]);
             HAdd (OFullTo 9 (s 1) 0 [9]); HAdd (OFullTo 2 (s 1) 120 [5]); HEnc false; HAdd (OFullTo 3 (s 0) 7 [])] in
  let tx := mkTrex 2 7 9 65536 in
  NoDup [1; 2; 3] /\ plain hs = true /\ forallb is_full_to (adds hs) = true /\
  Forall (fun o => sized_f (op_full o)) (adds hs) /\
  consistent (added_fulls [1; 2; 3] (tx_track tx) (adds hs)) /\
  exists fr fe, run_hops (with_extras (create_multi [1; 2; 3]) 77 9 12 [0; 26]) hs
                  = ([COk; COk; COk; COk; CErr; COk; COk; COk], Some fr) /\
                map (fun t => map tr_doff (tf_truns t)) (fr_trafs fr) = [[314%Z]; [311%Z; 315%Z]; [0%Z]] /\
                encode_frag true fr = Ok fe /\
                get_full_samples (decoded_view fe 1000 []) (Some tx)
                  = Ok [mkFull (s 1) 100 [1]; mkFull (s 2) 110 [2;3]; mkFull (s 1) 120 [5]].
Proof.
  split; [repeat constructor; cbn; intuition congruence|]. split; [reflexivity|]. split; [reflexivity|].
  split; [repeat constructor|]. split; [split; [cbn; lia|reflexivity]|].
  eexists; eexists. split; [vm_compute; reflexivity|]. split; [vm_compute; reflexivity|].
  split; [vm_compute; reflexivity|]. vm_compute. reflexivity.
Qed.

(* enc_guard is satisfiable after an optimised Encode by additions that agree with the defaults in the dropped fields
   (duration 10, flags, cto 0) and differ in the field that stayed (size) *)
Example C05_roundtrip_with_encodes_guarded_ex :
  let s k := mkSample 16842752 10 k 0 in
  let hs := [HAdd (OFullTo 1 (s 1) 0 [1]); HAdd (OFullTo 1 (s 2) 10 [2;3]); HEnc true; HAdd (OFullTo 1 (s 3) 20 [4;5;6])] in
  exists cs fr fe, run_hops (with_extras (create_multi [1]) 0 0 0 []) hs = (cs, Some fr) /\ plain hs = false /\
    enc_guard fr = true /\ encode_frag true fr = Ok fe /\
    get_full_samples (decoded_view fe 0 []) (Some (mkTrex 1 0 0 0)) = Ok (added_fulls [1] 1 (adds hs)).
Proof.
  eexists; eexists; eexists. split; [vm_compute; reflexivity|]. split; [reflexivity|].
  split; [vm_compute; reflexivity|]. split; [vm_compute; reflexivity|]. vm_compute. reflexivity.
Qed.

(* hypotheses of C05_roundtrip_with_encodes_modes in the metadata-only mode: AddSamples of two samples, a plain Encode,
   an addition to an unknown track (refused), AddSample, another plain Encode; the caller writes 6 bytes *)
Example C05_roundtrip_with_encodes_modes_ex :
  let s k := mkSample 16842752 10 k 0 in
  let hs := [HAdd (OMetas [s 2; s 1] 500); HEnc false; HAdd (OMetaTo 9 (s 1) 0); HAdd (OMeta (s 3) 520); HEnc false] in
  let FL := [mkFull (s 2) 0 [1;2]; mkFull (s 1) 0 [3]; mkFull (s 3) 0 [4;5;6]] in
  exists fr fe, run_hops (with_extras (create_fragment 4) 20 0 8 [5]) hs = ([COk; COk; CErr; COk; COk], Some fr) /\
    plain hs = true /\ md_large (fr_mdat fr) = false /\
    add_classes hs [COk; COk; CErr; COk; COk] = [COk; CErr; COk] /\
    mode_ok (adds hs) [COk; CErr; COk] FL [1;2;3;4;5;6] /\ map fs_s FL = added1 4 (adds hs) /\ Forall sized_f FL /\
    encode_frag true fr = Ok fe /\
    get_full_samples (decoded_view fe 300 [1;2;3;4;5;6]) (Some (mkTrex 4 0 0 0))
      = Ok [mkFull (s 2) 500 [1;2]; mkFull (s 1) 510 [3]; mkFull (s 3) 520 [4;5;6]].
Proof.
  eexists; eexists. split; [vm_compute; reflexivity|]. split; [reflexivity|]. split; [reflexivity|]. split; [reflexivity|].
  split; [right; left; split; reflexivity|].
  split; [reflexivity|]. split; [repeat constructor|]. split; [vm_compute; reflexivity|]. vm_compute. reflexivity.
Qed.
