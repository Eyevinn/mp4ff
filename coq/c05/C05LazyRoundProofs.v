(* C05LazyRoundProofs.v — metadata-only additions (data written separately by the caller) read back like full
   additions: Fragment.Encode depends on the mdat only through its header size. *)
From V.lib Require Import Base.
From V.c05 Require Import C05Model C05FragModel C05OptProofs C05HistProofs C05OffProofs C05GhostProofs
  C05ReadProofs C05RoundProofs C05LazyProofs.

Definition hdr (fr : frag) : N := md_header_size (md_size_touch (fr_mdat fr)).

Definition same_class {A B} (x : res A) (y : res B) : Prop :=
  match x, y with
  | Ok _, Ok _ | Err, Err | Panic, Panic | OutOfFuel, OutOfFuel => True
  | _, _ => False
  end.

Lemma optimize_first_meta a b :
  same_meta a b ->
  match optimize_first a, optimize_first b with
  | Ok a1, Ok b1 => same_meta a1 b1 /\ fr_mdat a1 = fr_mdat a /\ fr_mdat b1 = fr_mdat b
  | x, y => same_class x y
  end.
Proof.
  intros (Ht & Hn & Hp & Hx & Hq). unfold optimize_first. rewrite <- Ht.
  destruct (fr_trafs a) as [|t ts] eqn:Ea.
  { split; [repeat split; try assumption; congruence|split; reflexivity]. }
  destruct (tf_truns t) as [|r rs].
  { split; [repeat split; try assumption; congruence|split; reflexivity]. }
  destruct (optimize (tf_hd t) r) as [[h' r']| | |]; cbn [rbind same_class]; try exact I.
  split; [|split; reflexivity]. unfold same_meta. cbn [fr_with fr_trafs fr_next fr_pre fr_moofx fr_post].
  repeat split; assumption.
Qed.

Lemma set_offsets_mdat fr :
  fr_mdat (set_offsets fr) = fr_mdat fr \/ fr_mdat (set_offsets fr) = md_size_touch (fr_mdat fr).
Proof. destruct (set_offsets_or fr) as [->|[f ->]]; [left|right]; reflexivity. Qed.

Lemma set_offsets_meta a b :
  same_meta a b -> hdr a = hdr b ->
  same_meta (set_offsets a) (set_offsets b) /\ hdr (set_offsets a) = hdr (set_offsets b).
Proof.
  intros Hm Hh. pose proof (moof_size_same a b Hm) as Hms. destruct Hm as (Ht & Hn & Hp & Hx & Hq).
  unfold set_offsets. rewrite <- Ht.
  destruct (negb (existsb (fun r => negb (tr_won r =? 0)) (all_truns (fr_trafs a))) && (1 <? lenN (all_truns (fr_trafs a)))).
  - split; [repeat split; assumption|exact Hh].
  - unfold hdr in *. rewrite Hms, Hh. split.
    + unfold same_meta. cbn [fr_with fr_trafs fr_next fr_pre fr_moofx fr_post]. repeat split; assumption.
    + cbn [fr_with fr_mdat]. rewrite !md_touch_idem. exact Hh.
Qed.

Lemma touch_fields m :
  md_lazy (md_size_touch m) = md_lazy m /\ md_data (md_size_touch m) = md_data m /\
  md_parts (md_size_touch m) = md_parts m.
Proof. repeat split. Qed.

Lemma encode_frag_meta opt a b :
  same_meta a b -> hdr a = hdr b ->
  match encode_frag opt a, encode_frag opt b with
  | Ok fa, Ok fb =>
      same_meta fa fb /\ md_header_size (fr_mdat fa) = md_header_size (fr_mdat fb) /\
      (md_lazy (fr_mdat fa) = md_lazy (fr_mdat a) /\ md_data (fr_mdat fa) = md_data (fr_mdat a) /\
       md_parts (fr_mdat fa) = md_parts (fr_mdat a)) /\
      (md_lazy (fr_mdat fb) = md_lazy (fr_mdat b) /\ md_data (fr_mdat fb) = md_data (fr_mdat b) /\
       md_parts (fr_mdat fb) = md_parts (fr_mdat b))
  | x, y => same_class x y
  end.
Proof.
  intros Hm Hh. unfold encode_frag.
  assert (H1 : match (if opt then optimize_first a else Ok a), (if opt then optimize_first b else Ok b) with
               | Ok a1, Ok b1 => same_meta a1 b1 /\ fr_mdat a1 = fr_mdat a /\ fr_mdat b1 = fr_mdat b
               | x, y => same_class x y
               end).
  { destruct opt; [apply optimize_first_meta; exact Hm|]. split; [exact Hm|split; reflexivity]. }
  destruct (if opt then optimize_first a else Ok a) as [a1| | |];
    destruct (if opt then optimize_first b else Ok b) as [b1| | |]; cbn [rbind same_class] in *; try contradiction; try exact I.
  destruct H1 as (Hm1 & Ea & Eb).
  assert (Hh1 : hdr a1 = hdr b1) by (unfold hdr; rewrite Ea, Eb; exact Hh).
  destruct (set_offsets_meta a1 b1 Hm1 Hh1) as (Hm2 & Hh2).
  pose proof (set_offsets_mdat a1) as Ma. pose proof (set_offsets_mdat b1) as Mb.
  destruct Hm2 as (Ht & Hn & Hp & Hx & Hq). rewrite <- Ht.
  destruct (fr_trafs (set_offsets a1)) as [|t ts]; cbn [same_class]; [exact I|].
  destruct (existsb doff_unset (tf_truns t)); cbn [same_class]; [exact I|].
  destruct (existsb doff_unset (all_truns ts)); cbn [same_class]; [exact I|].
  cbn [fr_with fr_trafs fr_next fr_pre fr_moofx fr_post fr_mdat]. split; [|split; [exact Hh2|]].
  - unfold same_meta. cbn [fr_with fr_trafs fr_next fr_pre fr_moofx fr_post]. repeat split; assumption.
  - split.
    + rewrite <- Ea. destruct Ma as [-> | ->]; repeat split.
    + rewrite <- Eb. destruct Mb as [-> | ->]; repeat split.
Qed.

(* full histories of AddFullSampleToTrack never panic *)
Lemma run_ops_total tracks ops : forall g fr,
  NoDup tracks -> count g + N.of_nat (length ops) < 4294967296 -> forallb is_full_to ops = true ->
  ginv tracks g fr -> exists cs fr', run_ops fr ops = (cs, Some fr').
Proof.
  induction ops as [|o ops IH]; intros g fr Hnd Hc Ho Hi; cbn [run_ops]; [eexists; eexists; reflexivity|].
  cbn [forallb] in Ho. apply andb_true_iff in Ho. destruct Ho as [Ho1 Ho2]. cbn [length] in Hc.
  pose proof (step_ginv tracks g fr o Hnd ltac:(lia) Ho1 Hi) as S.
  destruct (step fr o) as [fr1| | |]; try contradiction.
  - destruct S as (T & _ & _ & Hi1).
    assert (Hc1 : count (fruns_add g T (op_full o)) + N.of_nat (length ops) < 4294967296) by (rewrite count_add; lia).
    destruct (IH _ fr1 Hnd Hc1 Ho2 Hi1) as (cs & fr' & E). rewrite E. eexists; eexists; reflexivity.
  - assert (Hc1 : count g + N.of_nat (length ops) < 4294967296) by lia.
    destruct (IH _ fr Hnd Hc1 Ho2 Hi) as (cs & fr' & E). rewrite E. eexists; eexists; reflexivity.
Qed.

Lemma is_full_to_full ops : forallb is_full_to ops = true -> forallb is_full ops = true.
Proof.
  induction ops as [|o ops IH]; [reflexivity|]. cbn [forallb]. intros H. apply andb_true_iff in H.
  destruct H as [H1 H2]. rewrite (IH H2), andb_true_r. destruct o; try discriminate; reflexivity.
Qed.

Lemma fold_u64_sum l : forall acc, acc < 18446744073709551616 ->
  fold_left (fun a o => u64 (a + s_size (op_first_sample o))) l acc
  = u64 (acc + sumN (map (fun o => s_size (op_first_sample o)) l)).
Proof.
  induction l as [|o l IH]; intros acc Ha; cbn [fold_left map sumN].
  - rewrite N.add_0_r. unfold u64. symmetry. apply N.mod_small. exact Ha.
  - rewrite IH by (unfold u64; apply N.mod_lt; discriminate). rewrite u64_add_l. f_equal. lia.
Qed.

Lemma sizes_accepted cs ops :
  Forall (fun o => sized_f (op_full o)) ops ->
  sumN (map (fun o => s_size (op_first_sample o)) (accepted cs ops)) = lenN (flat_map op_data (accepted cs ops)).
Proof.
  revert cs. induction ops as [|o ops IH]; intros cs H; [destruct cs as [|[] ?]; reflexivity|].
  inversion H as [|? ? Ho Hr]; subst. destruct cs as [|c cs]; [reflexivity|].
  destruct c; cbn [accepted]; try (apply IH; exact Hr).
  cbn [map sumN flat_map]. rewrite lenN_app, IH by exact Hr. unfold sized_f in Ho. cbn [op_full fs_s fs_data] in Ho.
  rewrite Ho. reflexivity.
Qed.

(* the fragment the metadata-only history builds has the truns of the one the full history builds, and the bytes the
   caller writes behind it are the bytes that one holds: roundtrip_multi_ops applies to it as it stands *)
Lemma roundtrip_lazy tracks pre mx post exs ops cs b' opt fb pos0 tx :
  NoDup tracks -> N.of_nat (length ops) < 4294967296 -> forallb is_full_to ops = true ->
  Forall (fun o => sized_f (op_full o)) ops ->
  run_ops (with_extras (create_multi tracks) pre mx post exs) (map to_lazy ops) = (cs, Some b') ->
  encode_frag opt b' = Ok fb ->
  let data := flat_map op_data (accepted cs ops) in
  moof_size fb + md_header_size (fr_mdat fb) + lenN data < 2147483648 ->
  pos0 + fr_pre fb < 4611686018427387904 ->
  consistent (added_fulls tracks (tx_track tx) ops) ->
  get_full_samples (decoded_view fb pos0 data) (Some tx) = Ok (added_fulls tracks (tx_track tx) ops).
Proof.
  intros Hnd Hlen Hfull Hsz Hrunb Hencb data Hguard Hpos Hcons.
  set (fr0 := with_extras (create_multi tracks) pre mx post exs) in *.
  pose proof (create_multi_extras_ginv tracks pre mx post exs Hnd) as H0. fold fr0 in H0.
  destruct (run_ops_total tracks ops [] fr0 Hnd ltac:(cbn [count]; lia) Hfull H0) as (cs2 & a' & Hruna).
  pose proof (is_full_to_full ops Hfull) as Hfull'.
  destruct (history_lazy ops fr0 fr0 cs2 a' Hfull' ltac:(repeat split) Hruna) as (b2 & Hrunb2 & (Ht & _) & (Hd & Hp) & Hl).
  rewrite Hrunb in Hrunb2. injection Hrunb2 as <- <-.
  destruct (history_full_mdat ops fr0 cs a' Hfull' Hruna) as (Da & Pa & La). change (md_data (fr_mdat fr0)) with (@nil N) in Da, Hd.
  cbn [app] in Da. fold data in Da.
  change (md_lazy (fr_mdat fr0)) with 0 in Hl. rewrite fold_u64_sum, (sizes_accepted cs ops Hsz) in Hl by lia. fold data in Hl.
  cbn [N.add] in Hl. rewrite u64_small in Hl by lia.
  apply (roundtrip_multi_ops tracks ops cs fr0 a' b' data opt fb pos0 (Some tx) (tx_track tx)); try assumption; try reflexivity.
  - symmetry. exact Ht.
  - unfold view_data, md_written. rewrite (La eq_refl), Pa, Da, Hl, Hp, Hd. change (md_parts (fr_mdat fr0)) with (@nil (list N)).
    change (0 <? 0) with false. cbn iota.
    destruct (0 <? lenN data) eqn:E; [reflexivity|]. apply N.ltb_ge in E. destruct data; [reflexivity|rewrite lenN_cons in E; lia].
  - rewrite Da. exact Hguard.
Qed.
