(* C05SegAnyProofs.v — the segment theorem for segments whose fragments are ANY mix of the fragment classes with a
   per-fragment round-trip theorem: multi-track full samples (trex or nil trex), multi-track metadata-only samples with
   the data written by the caller, single-track fragments under all six add operations (one data mode per fragment).
   Everything goes through C05_segment_independent: a fragment class only has to say what one fragment reads back at
   every position. *)
From V.lib Require Import Base.
From V.c05 Require Import C05Model C05FragModel C05OptProofs C05HistProofs C05OffProofs C05GhostProofs
  C05ReadProofs C05RoundProofs C05LazyProofs C05LazyRoundProofs C05SingleProofs C05SegModel C05SegProofs.

(* ------------------------------------------------------------------ multi-track, metadata-only additions *)
(* the history fh_ops h is read as AddSampleToTrack calls (to_lazy); the caller writes the data of the accepted
   operations right after the fragment, so the fragment has no box after its mdat *)
Lemma reads_multi_lazy h cs b' opt fb x :
  hist_ok h -> fh_post h = [] ->
  run_ops (hist_start h) (map to_lazy (fh_ops h)) = (cs, Some b') -> encode_frag opt b' = Ok fb ->
  let data := flat_map op_data (accepted cs (fh_ops h)) in
  moof_size fb + md_header_size (fr_mdat fb) + lenN data < 2147483648 ->
  consistent (added_fulls (fh_tracks h) (tx_track x) (fh_ops h)) ->
  item_reads (Some x) (hist_item h fb data) (added_fulls (fh_tracks h) (tx_track x) (fh_ops h)).
Proof.
  intros (Hnd & Hlen & Hfull & Hsz & Hk) Hpost Hrunb Hencb data Hguard Hcons.
  set (fr0 := hist_start h) in *.
  pose proof (create_multi_extras_ginv (fh_tracks h) (xsum (fh_pre h)) (fh_mx h) (xsum (fh_post h)) (fh_exs h) Hnd) as H0.
  fold (hist_start h) in H0. fold fr0 in H0.
  destruct (run_ops_total (fh_tracks h) (fh_ops h) [] fr0 Hnd ltac:(cbn [count]; lia) Hfull H0) as (cs2 & a' & Hruna).
  pose proof (is_full_to_full _ Hfull) as Hfull'.
  assert (Hm0 : same_meta fr0 fr0) by (repeat split).
  destruct (history_lazy (fh_ops h) fr0 fr0 cs2 a' Hfull' Hm0 Hruna) as (b2 & Hrunb2 & Hm & (Hd & Hp) & Hl).
  rewrite Hrunb in Hrunb2. injection Hrunb2 as <- <-.
  assert (Hd0 : md_data (fr_mdat fr0) = [] /\ md_parts (fr_mdat fr0) = [] /\ md_lazy (fr_mdat fr0) = 0) by (repeat split).
  destruct Hd0 as (D0 & P0 & L0). rewrite D0 in Hd. rewrite P0 in Hp.
  rewrite L0, fold_u64_sum in Hl by lia. cbn [N.add] in Hl. rewrite (sizes_accepted cs (fh_ops h) Hsz) in Hl. fold data in Hl.
  assert (Hlz : md_lazy (fr_mdat b') = lenN data) by (rewrite Hl; unfold u64; apply N.mod_small; lia).
  destruct (encode_frag_mdat opt b' fb Hencb) as (El & Ed & Ep).
  destruct (encode_frag_frame opt b' fb Hencb) as (Epre & _).
  destruct (run_ops_frame _ _ _ _ Hrunb) as ((Rpre & _) & _).
  assert (Hw : md_written (fr_mdat fb) = []) by (unfold md_written; rewrite Ep, Hp, Ed, Hd; reflexivity).
  assert (Hpay : md_payload (fr_mdat fb) = lenN data).
  { unfold md_payload, md_data_length. rewrite El, Hlz, Ep, Hp, Ed, Hd.
    destruct (0 <? lenN data) eqn:E; [reflexivity|]. apply N.ltb_ge in E. change (lenN (@nil N)) with 0. lia. }
  repeat split.
  - exact Hk.
  - unfold item_framed. cbn [hist_item ei_fe ei_lz ei_post]. rewrite Hpay, Hw, Hpost. cbn [is_nil].
    rewrite orb_true_r, andb_true_r. apply N.eqb_eq. change (lenN (@nil N)) with 0. lia.
  - unfold item_pure. cbn [hist_item ei_fe ei_lz]. rewrite El, Hlz, Hw. cbn [is_nil]. rewrite andb_true_r.
    destruct (0 <? lenN data) eqn:E; [apply orb_true_r|]. apply N.ltb_ge in E.
    assert (Hz : lenN data = 0) by lia. rewrite Hz. unfold lenN in Hz. destruct data; [reflexivity|cbn in Hz; lia].
  - cbn [hist_item ei_fe ei_pre]. rewrite Epre, Rpre. reflexivity.
  - intros p Hpos. cbn [hist_item ei_fe ei_lz] in *.
    exact (roundtrip_lazy (fh_tracks h) _ _ _ _ (fh_ops h) cs b' opt fb p x Hnd Hlen Hfull Hsz Hrunb Hencb Hguard Hpos Hcons).
Qed.

(* ------------------------------------------------------------------ single-track fragments, all six operations *)
Definition md_pure (m : mdat) (lz : list N) : bool :=
  ((md_lazy m =? 0) && is_nil lz) || ((0 <? md_lazy m) && is_nil (md_written m)).

Lemma md_data_length_written m : md_data_length m = lenN (md_written m).
Proof. unfold md_data_length, md_written. destruct (md_parts m); [reflexivity|apply sumN_lenN_concat]. Qed.

(* the mdat bookkeeping of a single-track history in one data mode *)
Lemma single_md_facts T ops cs fr pre mx post exs FL lz :
  Forall (fun o => op_dts o < 18446744073709551616) ops ->
  run_ops (with_extras (create_fragment T) pre mx post exs) ops = (cs, Some fr) ->
  mode_ok ops cs FL lz -> map fs_s FL = added1 T ops -> Forall sized_f FL ->
  lenN (flat_map fs_data FL) < 18446744073709551616 ->
  md_payload (fr_mdat fr) = lenN (md_written (fr_mdat fr)) + lenN lz /\ md_pure (fr_mdat fr) lz = true.
Proof.
  intros Hdts Hrun Hmode Hs Hsz Hb.
  destruct (mode_mdat T ops cs fr pre mx post exs FL lz Hdts Hrun Hmode Hs Hsz Hb) as (_ & Hl & _ & Hw).
  unfold md_pure, md_payload. rewrite md_data_length_written, Hl. destruct lz as [|x lz]; [split; [symmetry; apply N.add_0_r|reflexivity]|].
  rewrite (Hw ltac:(discriminate)), lenN_cons.
  destruct (0 <? 1 + lenN lz) eqn:E; [split; [reflexivity|apply orb_true_r]|apply N.ltb_ge in E; lia].
Qed.

Lemma set_base_inj t t' : set_base t = set_base t' -> t = t'.
Proof. unfold set_base. intros H. injection H as _ H. exact H. Qed.

(* CreateFragment(seq,T) + extra boxes, ANY history of the six add operations in one data mode (mode_ok), FL = the
   accepted samples with their data pieces; with lazily written data there is no box after the mdat *)
Lemma reads_single T h cs fr opt fe x FL lz :
  hist_kinds h = true -> (lz = [] \/ fh_post h = []) ->
  Forall (fun o => op_dts o < 18446744073709551616) (fh_ops h) ->
  run_ops (hist_start1 T h) (fh_ops h) = (cs, Some fr) ->
  mode_ok (fh_ops h) cs FL lz ->
  map fs_s FL = added1 T (fh_ops h) -> Forall sized_f FL -> FL <> [] ->
  encode_frag opt fr = Ok fe ->
  moof_size fe + md_header_size (fr_mdat fe) + lenN (flat_map fs_data FL) < 2147483648 ->
  exists t, td_base (tf_dt (hd (mkTraf (create_tfhd T) (mkTfdt 0 0) [] 0) (fr_trafs fr))) = t /\
            item_reads (Some x) (hist_item h fe lz) (if tx_track x =? T then retime t FL else []).
Proof.
  intros Hk Hlzp Hdts Hrun Hmode Hs Hsz Hne Henc Hguard.
  unfold hist_start1 in Hrun.
  destruct (history_created T _ _ _ _ (fh_ops h) cs fr Hdts Hrun) as (_ & _ & t & ex & Hbt & Ht). exists t. split; [rewrite Ht; reflexivity|].
  destruct (single_md_facts T (fh_ops h) cs fr _ _ _ _ FL lz Hdts Hrun Hmode Hs Hsz ltac:(lia)) as (Hpay & Hpure).
  destruct (encode_frag_mdat opt fr fe Henc) as (El & Ed & Ep).
  destruct (encode_frag_frame opt fr fe Henc) as (Epre & _).
  destruct (run_ops_frame _ _ _ _ Hrun) as ((Rpre & _) & _).
  assert (Hpay' : md_payload (fr_mdat fe) = md_payload (fr_mdat fr)) by (unfold md_payload, md_data_length; rewrite El, Ed, Ep; reflexivity).
  assert (Hw' : md_written (fr_mdat fe) = md_written (fr_mdat fr)) by (unfold md_written; rewrite Ed, Ep; reflexivity).
  repeat split.
  - exact Hk.
  - unfold item_framed. cbn [hist_item ei_fe ei_lz ei_post]. rewrite Hpay', Hw', Hpay, N.eqb_refl. cbn [andb].
    destruct Hlzp as [->| ->]; [reflexivity|apply orb_true_r].
  - unfold item_pure. cbn [hist_item ei_fe ei_lz]. rewrite El, Hw'. exact Hpure.
  - cbn [hist_item ei_fe ei_pre]. rewrite Epre, Rpre. reflexivity.
  - intros p Hp. cbn [hist_item ei_fe ei_lz] in *.
    destruct (roundtrip_single_modes T (fh_ops h) cs fr opt fe p x _ _ _ _ FL lz Hdts Hrun Hmode Hs Hsz Hne Henc Hguard Hp)
      as (t' & ex' & Ht' & R).
    rewrite Ht in Ht'.
    assert (Hb' : t = t').
    { apply (f_equal (fun l => match l with a :: _ => td_base (tf_dt a) | [] => 0 end)) in Ht'. exact Ht'. }
    subst t'. exact R.
Qed.

(* ------------------------------------------------------------------ the classes, as one relation *)
(* one fragment of the segment with what it reads back for trex tx: any of the four classes *)
Inductive frag_case (opt : bool) : option trex -> eitem -> list fullsample -> Prop :=
| FC_multi h fr fe x :
    hist_ok h -> hist_frag h = Some fr -> encode_frag opt fr = Ok fe -> frag_guard fr fe ->
    consistent (added_fulls (fh_tracks h) (tx_track x) (fh_ops h)) ->
    frag_case opt (Some x) (hist_item h fe []) (added_fulls (fh_tracks h) (tx_track x) (fh_ops h))
| FC_multi_nil h T0 rest fr fe :
    fh_tracks h = T0 :: rest ->
    hist_ok h -> hist_frag h = Some fr -> encode_frag opt fr = Ok fe -> frag_guard fr fe ->
    consistent (added_fulls (fh_tracks h) T0 (fh_ops h)) ->
    frag_case opt None (hist_item h fe []) (added_fulls (fh_tracks h) T0 (fh_ops h))
| FC_multi_lazy h cs b' fb x :
    hist_ok h -> fh_post h = [] ->
    run_ops (hist_start h) (map to_lazy (fh_ops h)) = (cs, Some b') -> encode_frag opt b' = Ok fb ->
    moof_size fb + md_header_size (fr_mdat fb) + lenN (flat_map op_data (accepted cs (fh_ops h))) < 2147483648 ->
    consistent (added_fulls (fh_tracks h) (tx_track x) (fh_ops h)) ->
    frag_case opt (Some x) (hist_item h fb (flat_map op_data (accepted cs (fh_ops h))))
              (added_fulls (fh_tracks h) (tx_track x) (fh_ops h))
| FC_single T h cs fr fe x FL lz t :
    hist_kinds h = true -> (lz = [] \/ fh_post h = []) ->
    Forall (fun o => op_dts o < 18446744073709551616) (fh_ops h) ->
    run_ops (hist_start1 T h) (fh_ops h) = (cs, Some fr) ->
    mode_ok (fh_ops h) cs FL lz ->
    map fs_s FL = added1 T (fh_ops h) -> Forall sized_f FL -> FL <> [] ->
    encode_frag opt fr = Ok fe ->
    moof_size fe + md_header_size (fr_mdat fe) + lenN (flat_map fs_data FL) < 2147483648 ->
    td_base (tf_dt (hd (mkTraf (create_tfhd T) (mkTfdt 0 0) [] 0) (fr_trafs fr))) = t ->
    frag_case opt (Some x) (hist_item h fe lz) (if tx_track x =? T then retime t FL else []).

Lemma frag_case_reads opt tx it e : frag_case opt tx it e -> item_reads tx it e.
Proof.
  intros H. destruct H.
  - apply (reads_multi h fr opt fe (Some x)); try assumption. reflexivity.
  - apply (reads_multi h fr opt fe None T0); try assumption. exists rest. assumption.
  - apply (reads_multi_lazy h cs b' opt fb x); assumption.
  - destruct (reads_single T h cs fr opt fe x FL lz) as (t' & Et & R); try assumption. subst. exact R.
Qed.

Lemma segment_roundtrip_any head opt b pos0 tx its exps :
  head_ok head = true -> Forall2 (frag_case opt tx) its exps ->
  pos0 + stream_size (seg_stream head its) < POSB ->
  forallb item_framed its = true /\
  exists st, seg_decode b pos0 (seg_stream head its) = Ok st /\
             length (file_frags st) = length its /\ seg_read st tx = Ok (concat exps).
Proof.
  intros Hh H Hb. apply segment_any; try assumption.
  clear Hb. induction H as [|it e its exps H1 _ IH]; constructor; [apply (frag_case_reads opt tx); exact H1|exact IH].
Qed.
