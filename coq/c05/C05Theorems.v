(* C05Theorems.v — the property theorems of C05 and nothing else.  Each follows in a line or two from the general
   lemmas of the proofs files (the witnesses are given here) and is followed by Print Assumptions (audited by ./check on every run). *)
From V.lib Require Import Base.
From V.c05 Require Import C05Model C05FragModel C05OptProofs C05HistProofs C05LazyProofs
  C05OffProofs C05GhostProofs C05ReadProofs C05RoundProofs C05CodecModel C05CodecProofs C05LazyRoundProofs C05SingleProofs.

(* OptimizeTfhdTrun, then encode/decode of the trun (structure level: wire_trun), then
   AddSampleDefaultValues with ANY trex (or none) gives back exactly the samples of the trun, for all
   sample field values, all tfhd contents and every trun flag word having the four per-sample fields
   present (every trun made by CreateTrun). *)
Theorem C05_optimize_resolve : forall tf tr tx,
  (1 <= length (tr_samples tr))%nat -> all_present tr = true ->
  exists tf' tr', optimize tf tr = Ok (tf', tr') /\ resolve tf' tx (wire_trun tr') = tr_samples tr.
Proof. exact optimize_resolve. Qed.
Print Assumptions C05_optimize_resolve.

(* general form, for EVERY flag word (also truns that already rely on defaults): optimisation never
   changes what the decode side resolves for the optimised trun *)
Theorem C05_optimize_preserves_resolve : forall tf tr tx tf' tr',
  optimize tf tr = Ok (tf', tr') -> resolve tf' tx (wire_trun tr') = resolve tf tx (wire_trun tr).
Proof. exact optimize_preserves_resolve. Qed.
Print Assumptions C05_optimize_preserves_resolve.

(* the pinned text (before fix 8cfc4f9 in /repo) violated C05_optimize_resolve: stale first-sample-flags *)
Theorem C05_optimize_pinned_refuted : exists tf tr tx tf' tr',
  all_present tr = true /\ optimize_pinned tf tr = Ok (tf', tr') /\
  resolve tf' tx (wire_trun tr') <> tr_samples tr.
Proof.
  exists (create_tfhd 1), wit_tr, None.
  eexists; eexists. split; [vm_compute; reflexivity|]. split; [vm_compute; reflexivity|].
  vm_compute. discriminate.
Qed.
Print Assumptions C05_optimize_pinned_refuted.

(* ---------------------------------------------------------------- box codecs (byte level) *)
(* DecodeTrun / DecodeTrunSR applied to the bytes written by TrunBox.Encode give the wire view used by the
   theorems above and below (absent fields 0, first-sample-flags given to sample 1, write order not stored),
   for every trun whose fields fit their wire widths *)
Theorem C05_trun_codec : forall t,
  trun_wf t = true -> dec_trun (trun_size t) (enc_trun_body t) = Ok (wire_trun t).
Proof. exact dec_enc_trun. Qed.
Print Assumptions C05_trun_codec.

Theorem C05_tfhd_codec : forall h,
  tfhd_wf h = true -> dec_tfhd (enc_tfhd_body h) = Ok (wire_tfhd h).
Proof. exact dec_enc_tfhd. Qed.
Print Assumptions C05_tfhd_codec.

(* ---------------------------------------------------------------- histories (fold over the op list) *)
(* CreateFragment(seq,T) followed by ANY sequence of the six add operations (those addressing another track id
   return an error and change nothing; a history ends at a panic, which is excluded by `Some fr`): the fragment
   still has its single traf and single trun with write-order number 0, and the trun holds exactly the samples
   of the accepted operations, in order. *)
Theorem C05_history_inv_single : forall T ops cs fr,
  run_ops (create_fragment T) ops = (cs, Some fr) ->
  fr_next fr = 1 /\
  exists dt ex, fr_trafs fr = [mkTraf (create_tfhd T) dt [canon 0 (added1 T ops)] ex].
Proof.
  intros T ops cs fr H.
  destruct (history_single (fun _ => True) T 0 ops (mkTfdt 0 0) [] (create_fragment T) cs fr (fun _ _ => I) I eq_refl eq_refl H) as (_ & Hn & dt & _ & Ht).
  split; [exact Hn|]. exists dt, 0. exact Ht.
Qed.
Print Assumptions C05_history_inv_single.

(* CreateMultiTrackFragment(seq,tracks) with pairwise different ids followed by any sequence of
   AddFullSampleToTrack /\
 AddSampleToTrack (fewer than 2^32): there is a list rr of runs (maximal groups of
   consecutive additions to one track, latest first) such that nextTrunNr = number of runs, every traf holds
   exactly one trun per run of its track (mk_truns: write-order number = index of the run, samples = the
   run's samples), and the concatenation of a traf's truns is the list of samples added to its track in order
   (additions to unknown ids are errors and add nothing). *)
Theorem C05_history_inv : forall tracks ops cs fr,
  NoDup tracks -> N.of_nat (length ops) < 4294967296 -> forallb to_track_op ops = true ->
  run_ops (create_multi tracks) ops = (cs, Some fr) ->
  exists rr : runs,
    fr_next fr = lenN rr /\
    map track_of (fr_trafs fr) = tracks /\
    (forall t, In t (fr_trafs fr) ->
       tf_truns t = mk_truns (track_of t) rr /\
       flat_map tr_samples (tf_truns t) = added_multi tracks (track_of t) ops).
Proof.
  intros tracks ops cs fr.
  intros Hd Hb Ho H.
  destruct (history_multi ops [] (create_multi tracks) cs fr) as (rr & (Hn & Hd' & Hf) & Hm & Hs); try assumption.
  { apply create_multi_inv. exact Hd. }
  rewrite create_multi_tracks in Hm, Hs.
  exists rr. split; [exact Hn|]. split; [exact Hm|].
  intros t Ht. rewrite Forall_forall in Hf. specialize (Hf t Ht). split; [exact Hf|].
  rewrite Hf, mk_truns_samples, Hs. reflexivity.
Qed.
Print Assumptions C05_history_inv.

(* on ANY fragment, a history of AddFullSample /\
 AddFullSampleToTrack leaves in mdat the concatenation of the
   data of the accepted operations in op order (no data parts appear, the lazy size stays 0) *)
Theorem C05_history_mdat : forall ops fr cs fr',
  forallb is_full ops = true -> run_ops fr ops = (cs, Some fr') ->
  md_data (fr_mdat fr') = md_data (fr_mdat fr) ++ flat_map op_data (accepted cs ops) /\
  md_parts (fr_mdat fr') = md_parts (fr_mdat fr) /\
  (md_lazy (fr_mdat fr) = 0 -> md_lazy (fr_mdat fr') = 0).
Proof. exact history_full_mdat. Qed.
Print Assumptions C05_history_mdat.

(* C05_offsets + tfdt: multi-track fragments under any history of AddFullSampleToTrack with Sample.Size = len(Data).
   With g the ghost runs of the history (ghost), after SetTrunDataOffsets every trun has data offset
   moof size + written mdat header + total data size of the runs written before it (run_pos), under the stated
   int32 guard (beyond it the real code wraps silently: known finding C05-F5); mdat holds the data in op order;
   each traf holds one trun per run of its track (canon_of: write-order number = run index), the data of the run
   with index k lies at byte run_pos k of the mdat payload (placed), and tfdt is the decode time of the first
   sample added to the track. *)
Theorem C05_offsets : forall tracks pre mx post exs ops cs fr,
  NoDup tracks -> N.of_nat (length ops) < 4294967296 -> forallb is_full_to ops = true ->
  Forall (fun o => sized_f (op_full o)) ops ->
  run_ops (with_extras (create_multi tracks) pre mx post exs) ops = (cs, Some fr) ->
  let g := ghost tracks [] ops in
  let rr := runs_of g in
  let m := md_size_touch (fr_mdat fr) in
  let base := moof_size fr + md_header_size m in
  base + lenN (md_data (fr_mdat fr)) < 2147483648 ->
  set_offsets fr = fr_with fr (with_offsets fr (fun r => Z.of_N (base + run_pos rr (tr_won r)))) m (fr_next fr) /\
  md_data (fr_mdat fr) = all_data g /\
  forall t, In t (fr_trafs fr) ->
    tf_truns t = map canon_of (specs_of (track_of t) g) /\
    Forall (placed (md_data (fr_mdat fr)) rr) (specs_of (track_of t) g) /\
    tf_dt t = tfdt_of (added_fulls tracks (track_of t) ops).
Proof.
  intros tracks pre mx post exs ops cs fr Hnd Hlen Hfull Hsz Hrun. apply (offsets_multi tracks ops cs (with_extras (create_multi tracks) pre mx post exs) fr); try assumption.
  apply create_multi_extras_ginv. exact Hnd.
Qed.
Print Assumptions C05_offsets.

(* C05_roundtrip (structure level: box codecs replaced by the wire view of truns, proved for tfhd/trun only as
   far as C05_optimize_resolve goes; mfhd/tfdt/mdat/extra boxes are positions and sizes).  For every multi-track
   fragment (pairwise different ids, including tracks that receive nothing), every history of AddFullSampleToTrack
   (also to unknown ids, which are refused) with Sample.Size = len(Data), optimisation on or off, any sizes of
   extra boxes before moof / in moof / in trafs / after mdat (with_extras), any absolute position pos0 and ANY trex: if
   Fragment.Encode succeeds then Fragment.GetFullSamples(trex) on the decoded fragment returns exactly the full
   samples added to trex's track, in order, with their bytes, sizes, durations, flags, composition offsets and
   decode times, provided the added decode times are consistent with the durations and the fragment stays below
   2 GiB (int32 data offsets). *)
Theorem C05_roundtrip : forall tracks pre mx post exs ops cs fr opt fe pos0 tx,
  NoDup tracks -> N.of_nat (length ops) < 4294967296 -> forallb is_full_to ops = true ->
  Forall (fun o => sized_f (op_full o)) ops ->
  run_ops (with_extras (create_multi tracks) pre mx post exs) ops = (cs, Some fr) ->
  encode_frag opt fr = Ok fe ->
  moof_size fe + md_header_size (fr_mdat fe) + lenN (md_data (fr_mdat fr)) < 2147483648 ->
  pos0 + fr_pre fe < 4611686018427387904 ->
  consistent (added_fulls tracks (tx_track tx) ops) ->
  get_full_samples (decoded_view fe pos0 []) (Some tx) = Ok (added_fulls tracks (tx_track tx) ops).
Proof.
  intros tracks pre mx post exs ops cs fr opt fe pos0 tx Hnd Hlen Hfull Hsz Hrun Henc Hguard Hpos Hcons.
  apply (roundtrip_multi_ops tracks ops cs (with_extras (create_multi tracks) pre mx post exs) fr fr [] opt fe pos0 (Some tx) (tx_track tx)); try assumption; try reflexivity.
  apply create_multi_extras_ginv. exact Hnd.
Qed.
Print Assumptions C05_roundtrip.

(* trex == nil: GetFullSamples reads the first traf *)
Theorem C05_roundtrip_nil : forall T0 rest pre mx post exs ops cs fr opt fe pos0,
  let tracks := T0 :: rest in
  NoDup tracks -> N.of_nat (length ops) < 4294967296 -> forallb is_full_to ops = true ->
  Forall (fun o => sized_f (op_full o)) ops ->
  run_ops (with_extras (create_multi tracks) pre mx post exs) ops = (cs, Some fr) ->
  encode_frag opt fr = Ok fe ->
  moof_size fe + md_header_size (fr_mdat fe) + lenN (md_data (fr_mdat fr)) < 2147483648 ->
  pos0 + fr_pre fe < 4611686018427387904 ->
  consistent (added_fulls tracks T0 ops) ->
  get_full_samples (decoded_view fe pos0 []) None = Ok (added_fulls tracks T0 ops).
Proof.
  intros T0 rest pre mx post exs ops cs fr opt fe pos0 tracks Hnd Hlen Hfull Hsz Hrun Henc Hguard Hpos Hcons.
  apply (roundtrip_multi_ops tracks ops cs (with_extras (create_multi tracks) pre mx post exs) fr fr [] opt fe pos0 None T0); try assumption; try reflexivity.
  - apply create_multi_extras_ginv. exact Hnd.
  - exists rest. reflexivity.
Qed.
Print Assumptions C05_roundtrip_nil.

(* metadata-only additions: the history uses AddSampleToTrack (to_lazy) and the caller writes the data of the
   accepted operations, in op order, right after the encoded fragment: the decoded fragment reads back the same
   full samples (Fragment.Encode depends on the mdat only through its header size: encode_frag_meta) *)
Theorem C05_roundtrip_lazy : forall tracks pre mx post exs ops cs b' opt fb pos0 tx,
  NoDup tracks -> N.of_nat (length ops) < 4294967296 -> forallb is_full_to ops = true ->
  Forall (fun o => sized_f (op_full o)) ops ->
  run_ops (with_extras (create_multi tracks) pre mx post exs) (map to_lazy ops) = (cs, Some b') ->
  encode_frag opt b' = Ok fb ->
  let data := flat_map op_data (accepted cs ops) in
  moof_size fb + md_header_size (fr_mdat fb) + lenN data < 2147483648 ->
  pos0 + fr_pre fb < 4611686018427387904 ->
  consistent (added_fulls tracks (tx_track tx) ops) ->
  get_full_samples (decoded_view fb pos0 data) (Some tx) = Ok (added_fulls tracks (tx_track tx) ops).
Proof. exact roundtrip_lazy. Qed.
Print Assumptions C05_roundtrip_lazy.

(* the same for single-track fragments: CreateFragment(seq,T) + extra boxes, any history of AddFullSample /
   AddFullSampleToTrack (other ids are refused) that adds at least one sample; a trex of another track gets nil *)
Theorem C05_roundtrip_single : forall T ops cs fr opt fe pos0 tx pre mx post exs,
  N.of_nat (length ops) < 4294967296 -> forallb is_full ops = true ->
  Forall (fun o => sized_f (op_full o)) ops ->
  run_ops (with_extras (create_fragment T) pre mx post exs) ops = (cs, Some fr) ->
  encode_frag opt fr = Ok fe ->
  added1_fulls T ops <> [] ->
  moof_size fe + md_header_size (fr_mdat fe) + lenN (md_data (fr_mdat fr)) < 2147483648 ->
  pos0 + fr_pre fe < 4611686018427387904 ->
  consistent (added1_fulls T ops) ->
  get_full_samples (decoded_view fe pos0 []) (Some tx) =
    Ok (if tx_track tx =? T then added1_fulls T ops else []).
Proof. exact roundtrip_single. Qed.
Print Assumptions C05_roundtrip_single.

(* single-track fragments: the data offset of the only run (all six operations) *)
Theorem C05_offsets_partial : forall T ops cs fr,
  run_ops (create_fragment T) ops = (cs, Some fr) ->
  let m := md_size_touch (fr_mdat fr) in
  moof_size fr + md_header_size m < 2147483648 ->
  exists dt ex,
    set_offsets fr =
      fr_with fr [mkTraf (create_tfhd T) dt
                    [tr_with_doff (canon 0 (added1 T ops)) (Z.of_N (moof_size fr + md_header_size m))] ex]
              m (fr_next fr).
Proof.
  intros T ops cs fr H m Hg.
  destruct (history_single (fun _ => True) T 0 ops (mkTfdt 0 0) [] (create_fragment T) cs fr (fun _ _ => I) I eq_refl eq_refl H) as (_ & _ & dt & _ & Ht).
  exists dt, 0. rewrite (set_offsets_single fr _ _ _ _ Ht). fold m. rewrite i32_small by exact Hg. reflexivity.
Qed.
Print Assumptions C05_offsets_partial.

(* single-track fragments under ALL six operations (AddFullSample, AddFullSampleToTrack, AddSampleToTrack,
   AddSample, AddSamples, AddSampleInterval), one data mode per fragment (mode_ok: full samples / metadata only
   with the data lz written by the caller after the fragment / sample intervals as data parts): for every
   assignment FL of data pieces to the accepted samples with Sample.Size = len(piece) whose concatenation is the
   data that was added (resp. written by the caller), the decoded fragment reads back exactly these samples and
   pieces, with decode times = tfdt + accumulated durations, where tfdt is the fragment's
   SetBaseMediaDecodeTime value t (for full samples C05_roundtrip_single shows it is the first decode time). *)
Theorem C05_roundtrip_single_modes : forall T ops cs fr opt fe pos0 tx pre mx post exs FL lz,
  Forall (fun o => op_dts o < 18446744073709551616) ops ->
  run_ops (with_extras (create_fragment T) pre mx post exs) ops = (cs, Some fr) ->
  mode_ok ops cs FL lz ->
  map fs_s FL = added1 T ops -> Forall sized_f FL -> FL <> [] ->
  encode_frag opt fr = Ok fe ->
  moof_size fe + md_header_size (fr_mdat fe) + lenN (flat_map fs_data FL) < 2147483648 ->
  pos0 + fr_pre fe < 4611686018427387904 ->
  exists t ex,
    fr_trafs fr = [mkTraf (create_tfhd T) (set_base t) [canon 0 (added1 T ops)] ex] /\
    get_full_samples (decoded_view fe pos0 lz) (Some tx) = Ok (if tx_track tx =? T then retime t FL else []).
Proof. exact roundtrip_single_modes. Qed.
Print Assumptions C05_roundtrip_single_modes.

(* C05_lazy_equiv, full statement (byte level, NOT proved): encode (run_lazy h) ++ concat (data h) = encode (run_full h).
   Proved part (structure level): replacing every AddFullSample / AddFullSampleToTrack of a history by AddSample /
   AddSampleToTrack (data written separately by the caller) gives the same outcome classes, the same trafs (so
   the same truns, flags, write-order numbers, tfdt) and the same moof size; the mdat data stays untouched and
   the lazy size is the (uint64) sum of the accepted samples' sizes.  What remains for the byte level is the
   equality of the mdat header (payload = that sum when Sample.Size = len(Data)) and the box codecs. *)
Theorem C05_lazy_equiv_partial : forall ops a b cs a',
  forallb is_full ops = true -> same_meta a b ->
  run_ops a ops = (cs, Some a') ->
  exists b', run_ops b (map to_lazy ops) = (cs, Some b') /\
             fr_trafs a' = fr_trafs b' /\ fr_next a' = fr_next b' /\ moof_size a' = moof_size b' /\
             md_data (fr_mdat b') = md_data (fr_mdat b) /\
             md_lazy (fr_mdat b') =
               fold_left (fun acc o => u64 (acc + s_size (op_first_sample o))) (accepted cs ops) (md_lazy (fr_mdat b)).
Proof.
  intros ops a b cs a' Hf Hm H. destruct (history_lazy ops a b cs a' Hf Hm H) as (b' & R & Hm' & (D & P) & L).
  exists b'. split; [exact R|]. pose proof (moof_size_same _ _ Hm') as Hs. destruct Hm' as (Ht & Hn & Hr). auto.
Qed.
Print Assumptions C05_lazy_equiv_partial.

(* the hypotheses are satisfiable by a non-trivial value: three samples, first flags differ, cto all zero *)
Example C05_optimize_resolve_ex :
  let tr := mkTrun 1 3841 0 0 [mkSample 33554432 10 7 0; mkSample 16842752 10 5 0; mkSample 16842752 10 5 0] 0 in
  all_present tr = true /\ (1 <= length (tr_samples tr))%nat /\
  optimize (create_tfhd 1) tr =
    Ok (mkTfhd 131112 1 0 1 10 0 16842752,
        mkTrun 1 517 0 33554432 (tr_samples tr) 0).
Proof. vm_compute. repeat split; try reflexivity. lia. Qed.

(* a non-trivial history satisfying the hypotheses of C05_history_inv: three tracks, alternating runs, one unknown id *)
Example C05_history_inv_ex :
  let s k := mkSample 16842752 10 k 0 in
  let ops := [OFullTo 2 (s 1) 0 [1]; OFullTo 2 (s 2) 10 [2;3]; OFullTo 1 (s 1) 0 [4]; OMetaTo 9 (s 1) 0;
              OFullTo 2 (s 1) 20 [5]; OFullTo 3 (s 0) 0 []] in
  NoDup [1; 2; 3] /\ forallb to_track_op ops = true /\
  exists fr, run_ops (create_multi [1; 2; 3]) ops = ([COk; COk; COk; CErr; COk; COk], Some fr) /\
             fr_next fr = 4 /\
             map (fun t => map tr_won (tf_truns t)) (fr_trafs fr) = [[1]; [0; 2]; [3]].
Proof.
  split; [repeat constructor; cbn; intuition congruence|]. split; [reflexivity|].
  eexists. split; [vm_compute; reflexivity|]. split; reflexivity.
Qed.

(* the hypotheses of C05_roundtrip are satisfiable by a non-trivial history: three tracks, alternating runs, an
   unknown id, optimisation on, an adversarial trex; the conclusion is also checked by computation *)
Example C05_roundtrip_ex :
  let s k := mkSample 16842752 10 k 0 in
  let ops := [OFullTo 2 (s 1) 100 [1]; OFullTo 2 (s 2) 110 [2;3]; OFullTo 1 (s 1) 0 [4]; OFullTo 9 (s 1) 0 [9];
              OFullTo 2 (s 1) 120 [5]; OFullTo 3 (s 0) 7 []] in
  let tx := mkTrex 2 7 9 65536 in
  NoDup [1; 2; 3] /\ forallb is_full_to ops = true /\ Forall (fun o => sized_f (op_full o)) ops /\
  consistent (added_fulls [1; 2; 3] (tx_track tx) ops) /\
  exists fr fe, run_ops (with_extras (create_multi [1; 2; 3]) 77 9 12 [0; 26]) ops
                  = ([COk; COk; COk; CErr; COk; COk], Some fr) /\
                encode_frag true fr = Ok fe /\
                get_full_samples (decoded_view fe 1000 []) (Some tx)
                  = Ok [mkFull (s 1) 100 [1]; mkFull (s 2) 110 [2;3]; mkFull (s 1) 120 [5]].
Proof.
  split; [repeat constructor; cbn; intuition congruence|]. split; [reflexivity|].
  split; [repeat constructor|]. split; [split; [cbn; lia|reflexivity]|].
  eexists; eexists. split; [vm_compute; reflexivity|]. split; [vm_compute; reflexivity|]. vm_compute. reflexivity.
Qed.

Example C05_trun_codec_ex :
  let t := mkTrun 1 2565 124 33554432 [mkSample 7 10 3 (-5); mkSample 7 20 4 2147483647] 3 in
  trun_wf t = true /\ tfhd_wf (mkTfhd 131128 2 0 1 10 0 16842752) = true /\
  dec_trun (trun_size t) (enc_trun_body t)
    = Ok (mkTrun 1 2565 124 33554432 [mkSample 33554432 0 3 (-5); mkSample 0 0 4 2147483647] 0).
Proof. vm_compute. repeat split. Qed.

(* hypotheses of C05_roundtrip_single_modes in the metadata-only mode: AddSamples of two samples then AddSample,
   the caller writes 6 bytes; and in the interval mode *)
Example C05_roundtrip_single_modes_ex :
  let s k := mkSample 16842752 10 k 0 in
  let ops := [OMetas [s 2; s 1] 500; OMetaTo 9 (s 1) 0; OMeta (s 3) 520] in
  let FL := [mkFull (s 2) 0 [1;2]; mkFull (s 1) 0 [3]; mkFull (s 3) 0 [4;5;6]] in
  exists fr fe, run_ops (with_extras (create_fragment 4) 20 0 8 [5]) ops = ([COk; CErr; COk], Some fr) /\
    mode_ok ops [COk; CErr; COk] FL [1;2;3;4;5;6] /\ map fs_s FL = added1 4 ops /\ Forall sized_f FL /\
    encode_frag true fr = Ok fe /\
    get_full_samples (decoded_view fe 300 [1;2;3;4;5;6]) (Some (mkTrex 4 0 0 0))
      = Ok [mkFull (s 2) 500 [1;2]; mkFull (s 1) 510 [3]; mkFull (s 3) 520 [4;5;6]].
Proof.
  eexists; eexists. split; [vm_compute; reflexivity|]. split; [right; left; split; reflexivity|].
  split; [reflexivity|]. split; [repeat constructor|]. split; [vm_compute; reflexivity|]. vm_compute. reflexivity.
Qed.
