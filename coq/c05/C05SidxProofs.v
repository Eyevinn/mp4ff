(* C05SidxProofs.v — segments whose head is a list of sidx boxes WITHOUT a styp box.  The File collects the sidx boxes
   and File.startSegmentIfNeeded then starts a new MediaSegment at every emsg / moof whose position is the start of the
   next reference (C05SegModel.start_if_needed).  A new segment started while a fragment opened by an emsg still
   waits for its moof leaves that fragment without moof for good (GetFullSamples panics on it): sidx_guard is exactly
   "this does not happen"; under it DecodeFile regroups the stream into the encoded fragments as before. *)
From V.lib Require Import Base.
From V.c05 Require Import C05Model C05FragModel C05SegModel C05SegProofs C05SegAnyProofs.

(* ------------------------------------------------------------------ the guard *)
(* File.startSegmentIfNeeded starts a segment at a box at `pos` when k segments exist *)
Definition seg_trig (sxs : list (N * list sref)) (pos k : N) : bool := scan_sidxs sxs 0 pos k || (k =? 0).

(* the emsg / ignored boxes between an mdat and the next moof: (number of segments, an emsg has opened a fragment
   that waits for its moof); None: a segment start is signalled while such a fragment is open *)
Fixpoint walk_inner (sxs : list (N * list sref)) (xs : list xbox) (pos k : N) (open : bool) : option (N * bool) :=
  match xs with
  | [] => Some (k, open)
  | x :: rest =>
      match x_kind x with
      | XEmsg => if seg_trig sxs pos k
                 then (if open then None else walk_inner sxs rest (pos + x_size x) (k + 1) true)
                 else walk_inner sxs rest (pos + x_size x) k open
      | _ => walk_inner sxs rest (pos + x_size x) k open
      end
  end.

Definition item_after_mdat (pos : N) (it : eitem) : N :=
  pos + xsum (ei_pre it) + moof_size (ei_fe it) +
  (md_header_size (fr_mdat (ei_fe it)) + lenN (md_written (fr_mdat (ei_fe it)) ++ ei_lz it)).

Fixpoint sidx_guard (sxs : list (N * list sref)) (its : list eitem) (pos k : N) (open : bool) : bool :=
  match its with
  | [] => negb open
  | it :: rest =>
      match walk_inner sxs (ei_pre it) pos k open with
      | None => false
      | Some (k1, o1) =>
          let trig := seg_trig sxs (pos + xsum (ei_pre it)) k1 in
          if o1 && trig then false
          else
            match walk_inner sxs (ei_post it ++ ei_between it) (item_after_mdat pos it) (if trig then k1 + 1 else k1) false with
            | None => false
            | Some (k2, o2) =>
                sidx_guard sxs rest (item_after_mdat pos it + xsum (ei_post it ++ ei_between it)) k2 o2
            end
      end
  end.

(* the head: sidx boxes only; what the File collects (AnchorPoint = end of the box + first_offset) *)
Definition is_sidx_box (x : xbox) : bool := match x_kind x with XSidx => true | _ => false end.

Fixpoint head_sidxs (pos : N) (head : list xbox) : list (N * list sref) :=
  match head with
  | [] => []
  | x :: rest => (u64 (pos + x_first x + x_size x), x_refs x) :: head_sidxs (pos + x_size x) rest
  end.

(* ------------------------------------------------------------------ the File's fragments *)
Definition ff (segs : list dseg) : list dfr := flat_map (fun g => rev (dg_frags g)) (rev segs).

Lemma ff_cons g segs : ff (g :: segs) = ff segs ++ rev (dg_frags g).
Proof. unfold ff. cbn [rev]. rewrite flat_map_app. cbn [flat_map]. rewrite app_nil_r. reflexivity. Qed.

Definition openf : dfr := mkDfr None None.
Definition nonempty_segs (segs : list dseg) : Prop := Forall (fun g => dg_frags g <> []) segs.

(* states between two boxes, outside moof..mdat: done = the complete fragments so far; open = an emsg opened one more *)
Inductive sinv (sxs : list (N * list sref)) (done : list dfr) : bool -> fstate -> Prop :=
| SI_init b : done = [] -> sinv sxs done false (mkFstate b sxs [] None)
| SI_bnd segs : segs <> [] -> nonempty_segs segs -> ff segs = done -> sinv sxs done false (mkFstate true sxs segs None)
| SI_open rest : nonempty_segs rest -> ff rest = done ->
    sinv sxs done true (mkFstate true sxs (mkDseg false [openf] :: rest) None).

Lemma sinv_sidxs sxs done o st : sinv sxs done o st -> fs_sidxs st = sxs.
Proof. intros H. destruct H; reflexivity. Qed.

Lemma start_trig st pos :
  start_if_needed st pos =
    if seg_trig (fs_sidxs st) pos (lenN (fs_segs st))
    then mkFstate true (fs_sidxs st) (mkDseg false [] :: fs_segs st) (fs_mdat st) else st.
Proof.
  unfold start_if_needed, seg_trig. destruct (fs_sidxs st) as [|p l]; [|reflexivity].
  cbn [scan_sidxs orb]. rewrite orb_diag. reflexivity.
Qed.

Lemma lenN_cons' {A} (a : A) l : lenN (a :: l) = lenN l + 1.
Proof. unfold lenN. cbn [length]. lia. Qed.

Lemma seg_trig_zero sxs pos : seg_trig sxs pos 0 = true.
Proof. unfold seg_trig. apply orb_true_r. Qed.

(* one emsg / ignored box *)
Lemma sidx_add_inner sxs done o st pos x lm k k' o' :
  sinv sxs done o st -> inner_kind x = true -> k = lenN (fs_segs st) ->
  walk_inner sxs [x] pos k o = Some (k', o') ->
  exists st1, add_box st pos (TX x) lm = Ok st1 /\ sinv sxs done o' st1 /\ k' = lenN (fs_segs st1).
Proof.
  intros Hst Hk Hlen Hw. unfold inner_kind in Hk. cbn [walk_inner] in Hw. cbn [add_box].
  destruct (x_kind x) eqn:Ek; try discriminate.
  2:{ injection Hw as <- <-. exists st. split; [reflexivity|]. split; [exact Hst|exact Hlen]. }
  rewrite start_trig, (sinv_sidxs _ _ _ _ Hst), <- Hlen.
  destruct (seg_trig sxs pos k) eqn:Et.
  - destruct o; [discriminate|]. injection Hw as <- <-.
    inversion Hst as [b Hd|segs Hne Hall Hff|]; subst; cbn [fs_sidxs fs_segs fs_mdat upd_last_seg dg_frags dg_styp fs_fragmented].
    + eexists. split; [reflexivity|]. split; [apply SI_open; [constructor|reflexivity]|]. reflexivity.
    + eexists. split; [reflexivity|]. split; [apply SI_open; [exact Hall|reflexivity]|]. cbn [fs_segs]; rewrite ?lenN_cons'; reflexivity.
  - injection Hw as <- <-.
    inversion Hst as [b Hd|segs Hne Hall Hff|rest Hall Hff]; subst; cbn [fs_sidxs fs_segs fs_mdat] in *.
    + rewrite seg_trig_zero in Et. discriminate.
    + destruct segs as [|g segs']; [congruence|]. unfold upd_last_seg. cbn [fs_segs fs_fragmented fs_sidxs fs_mdat].
      inversion Hall as [|? ? Hg Hr]; subst. destruct (dg_frags g) as [|f fs] eqn:Ef; [congruence|].
      eexists. split; [reflexivity|]. split; [|reflexivity]. destruct g as [s fr]. cbn [dg_frags dg_styp] in *. subst fr.
      apply SI_bnd; [discriminate|exact Hall|reflexivity].
    + unfold upd_last_seg. cbn [fs_segs fs_fragmented fs_sidxs fs_mdat dg_frags openf].
      eexists. split; [reflexivity|]. split; [apply SI_open; [exact Hall|reflexivity]|reflexivity].
Qed.

Lemma walk_inner_cons sxs x xs pos k o :
  walk_inner sxs (x :: xs) pos k o =
    match walk_inner sxs [x] pos k o with
    | Some (k1, o1) => walk_inner sxs xs (pos + x_size x) k1 o1
    | None => None
    end.
Proof.
  cbn [walk_inner]. destruct (x_kind x); try reflexivity.
  destruct (seg_trig sxs pos k); [destruct o|]; reflexivity.
Qed.

Lemma sidx_loop_inner sxs done xs : forall st pos lm k o k' o',
  sinv sxs done o st -> forallb inner_kind xs = true -> k = lenN (fs_segs st) ->
  walk_inner sxs xs pos k o = Some (k', o') ->
  exists st1 lm', sinv sxs done o' st1 /\ k' = lenN (fs_segs st1) /\
    forall rest, seg_decode_loop (map TX xs ++ rest) st pos lm = seg_decode_loop rest st1 (pos + xsum xs) lm'.
Proof.
  induction xs as [|x xs IH]; intros st pos lm k o k' o' Hst Hk Hlen Hw.
  - cbn [walk_inner] in Hw. injection Hw as <- <-. exists st, lm. split; [exact Hst|]. split; [exact Hlen|].
    intros rest. cbn [map app]. change (xsum []) with 0. rewrite N.add_0_r. reflexivity.
  - cbn [forallb] in Hk. apply andb_true_iff in Hk. destruct Hk as [Hx Hxs].
    rewrite walk_inner_cons in Hw. destruct (walk_inner sxs [x] pos k o) as [[k1 o1]|] eqn:E1; [|discriminate].
    destruct (sidx_add_inner sxs done o st pos x lm k k1 o1 Hst Hx Hlen E1) as (st1 & A1 & Hst1 & Hl1).
    destruct (IH st1 (pos + x_size x) false k1 o1 k' o' Hst1 Hxs Hl1 Hw) as (st2 & lm' & Hst2 & Hl2 & L).
    exists st2, lm'. split; [exact Hst2|]. split; [exact Hl2|]. intros rest.
    cbn [map app seg_decode_loop]. rewrite A1. cbn [rbind tb_size is_moof]. rewrite L, xsum_cons. f_equal. lia.
Qed.

(* the last fragment of the last segment has its moof *)
Lemma ff_last_moofed g segs f fs :
  dg_frags g = f :: fs -> moofed (ff (g :: segs)) -> dr_moof f <> None.
Proof.
  intros Ef Hm. rewrite ff_cons, Ef in Hm. cbn [rev] in Hm. unfold moofed in Hm. rewrite Forall_forall in Hm.
  apply Hm. apply in_or_app. right. apply in_or_app. right. left. reflexivity.
Qed.

(* moof + mdat *)
Lemma sidx_moof_mdat sxs done o st pos sz trafs lm hdr payload k :
  sinv sxs done o st -> moofed done -> k = lenN (fs_segs st) ->
  (o && seg_trig sxs pos k) = false ->
  let f := mkDfr (Some (pos, trafs)) (Some (pos + sz + hdr, payload)) in
  exists st2, (do st1 <- add_box st pos (TMoof sz trafs) lm; add_box st1 (pos + sz) (TMdat hdr payload) true) = Ok st2 /\
              sinv sxs (done ++ [f]) false st2 /\
              lenN (fs_segs st2) = (if seg_trig sxs pos k then k + 1 else k).
Proof.
  intros Hst Hm Hlen Hg f. cbn [add_box]. rewrite start_trig. cbn [fs_sidxs fs_segs fs_mdat].
  rewrite (sinv_sidxs _ _ _ _ Hst), <- Hlen.
  inversion Hst as [b Hd|segs Hne Hall Hff|rest Hall Hff]; subst; cbn [fs_sidxs fs_segs fs_mdat andb] in *.
  - rewrite seg_trig_zero. unfold upd_last_seg. cbn [fs_segs fs_fragmented fs_sidxs fs_mdat dg_frags dg_styp rbind add_box].
    eexists. split; [reflexivity|]. split; [|reflexivity].
    apply SI_bnd; [discriminate|constructor; [discriminate|constructor]|reflexivity].
  - destruct (seg_trig sxs pos (lenN segs)) eqn:Et.
    + unfold upd_last_seg. cbn [fs_segs fs_fragmented fs_sidxs fs_mdat dg_frags dg_styp rbind add_box].
      eexists. split; [reflexivity|]. split; [|cbn [fs_segs]; rewrite ?lenN_cons'; reflexivity].
      apply SI_bnd; [discriminate|constructor; [discriminate|exact Hall]|]. rewrite ff_cons. reflexivity.
    + destruct segs as [|g segs']; [congruence|]. unfold upd_last_seg. cbn [fs_segs fs_fragmented fs_sidxs fs_mdat].
      inversion Hall as [|? ? Hg' Hr]; subst. destruct (dg_frags g) as [|f0 fs] eqn:Ef; [congruence|].
      pose proof (ff_last_moofed g segs' f0 fs Ef Hm) as Hf0. destruct (dr_moof f0) eqn:Em; [|congruence].
      cbn [rbind add_box fs_fragmented fs_segs dg_frags dg_styp dr_moof fs_sidxs fs_mdat].
      eexists. split; [reflexivity|]. split; [|reflexivity].
      apply SI_bnd; [discriminate|constructor; [discriminate|exact Hr]|].
      rewrite !ff_cons. cbn [dg_frags rev]. rewrite Ef. cbn [rev]. rewrite <- !app_assoc. reflexivity.
  - destruct (seg_trig sxs pos (lenN (mkDseg false [openf] :: rest))) eqn:Et; [discriminate|].
    unfold upd_last_seg. cbn [fs_segs fs_fragmented fs_sidxs fs_mdat dg_frags dg_styp openf dr_moof dr_mdat rbind add_box].
    eexists. split; [reflexivity|]. split; [|reflexivity].
    apply SI_bnd; [discriminate|constructor; [discriminate|exact Hall]|]. rewrite ff_cons. reflexivity.
Qed.

Lemma sinv_file_frags sxs done st : sinv sxs done false st -> file_frags st = done.
Proof.
  intros H. inversion H as [b Hd|segs Hne Hall Hff|]; subst; [reflexivity|]. reflexivity.
Qed.

Lemma sidx_decode_items sxs its : forall done o st pos lm k,
  sinv sxs done o st -> moofed done -> k = lenN (fs_segs st) ->
  forallb item_kinds its = true -> sidx_guard sxs its pos k o = true ->
  exists st', seg_decode_loop (flat_map item_boxes its) st pos lm = Ok st' /\
              sinv sxs (done ++ items_dfrs pos its) false st'.
Proof.
  induction its as [|it its IH]; intros done o st pos lm k Hst Hm Hlen Hk Hg.
  - cbn [sidx_guard] in Hg. destruct o; [discriminate|]. exists st. split; [reflexivity|].
    cbn [items_dfrs]. rewrite app_nil_r. exact Hst.
  - cbn [forallb] in Hk. apply andb_true_iff in Hk. destruct Hk as [Hit Hits].
    unfold item_kinds in Hit. rewrite !andb_true_iff in Hit. destruct Hit as [[Hpre Hpost] Hbet].
    cbn [sidx_guard] in Hg.
    destruct (walk_inner sxs (ei_pre it) pos k o) as [[k1 o1]|] eqn:W1; [|discriminate].
    destruct (o1 && seg_trig sxs (pos + xsum (ei_pre it)) k1) eqn:G1; [discriminate|].
    destruct (walk_inner sxs (ei_post it ++ ei_between it) (item_after_mdat pos it)
                (if seg_trig sxs (pos + xsum (ei_pre it)) k1 then k1 + 1 else k1) false) as [[k2 o2]|] eqn:W2; [|discriminate].
    cbn [flat_map]. unfold item_boxes at 1. rewrite <- !app_assoc.
    destruct (sidx_loop_inner sxs done (ei_pre it) st pos lm k o k1 o1 Hst Hpre Hlen W1) as (st1 & lm1 & Hst1 & Hl1 & L1).
    rewrite L1. cbn [app seg_decode_loop].
    set (f := item_dfr pos it).
    destruct (sidx_moof_mdat sxs done o1 st1 (pos + xsum (ei_pre it)) (moof_size (ei_fe it)) (wire_trafs (ei_fe it)) lm1
                (md_header_size (fr_mdat (ei_fe it))) (md_written (fr_mdat (ei_fe it)) ++ ei_lz it) k1 Hst1 Hm Hl1 G1)
      as (st2 & E2 & Hst2 & Hl2).
    destruct (add_box st1 (pos + xsum (ei_pre it)) (TMoof (moof_size (ei_fe it)) (wire_trafs (ei_fe it))) lm1) as [sta| | |] eqn:Ea;
      cbn [rbind] in E2; try discriminate.
    cbn [rbind is_moof tb_size]. rewrite E2. cbn [rbind is_moof tb_size].
    change (mkDfr (Some (pos + xsum (ei_pre it), wire_trafs (ei_fe it)))
              (Some (pos + xsum (ei_pre it) + moof_size (ei_fe it) + md_header_size (fr_mdat (ei_fe it)),
                     md_written (fr_mdat (ei_fe it)) ++ ei_lz it))) with f in Hst2.
    assert (Hpb : forallb inner_kind (ei_post it ++ ei_between it) = true) by (rewrite forallb_app, Hpost, Hbet; reflexivity).
    rewrite app_assoc, <- map_app.
    assert (Hpa : pos + xsum (ei_pre it) + moof_size (ei_fe it) +
                  (md_header_size (fr_mdat (ei_fe it)) + lenN (md_written (fr_mdat (ei_fe it)) ++ ei_lz it)) = item_after_mdat pos it)
      by reflexivity.
    rewrite Hpa.
    destruct (sidx_loop_inner sxs (done ++ [f]) (ei_post it ++ ei_between it) st2 (item_after_mdat pos it) false _ false k2 o2
                Hst2 Hpb (eq_sym Hl2) W2) as (st3 & lm3 & Hst3 & Hl3 & L3).
    rewrite L3.
    assert (Hm2 : moofed (done ++ [f])) by (apply moofed_snoc; [exact Hm|discriminate]).
    destruct (IH (done ++ [f]) o2 st3 (item_after_mdat pos it + xsum (ei_post it ++ ei_between it)) lm3 k2 Hst3 Hm2 Hl3 Hits Hg)
      as (st' & E' & Hb').
    exists st'. split; [exact E'|]. cbn [items_dfrs]. rewrite <- app_assoc in Hb'. cbn [app] in Hb'.
    replace (pos + stream_size (item_boxes it)) with (item_after_mdat pos it + xsum (ei_post it ++ ei_between it)); [exact Hb'|].
    rewrite item_boxes_size, xsum_app. unfold item_after_mdat. lia.
Qed.

(* the head: sidx boxes only *)
Lemma sidx_decode_head head : forall b pos sxs0 lm,
  forallb is_sidx_box head = true ->
  forall rest, seg_decode_loop (map TX head ++ rest) (mkFstate b sxs0 [] None) pos lm =
               seg_decode_loop rest (mkFstate b (sxs0 ++ head_sidxs pos head) [] None) (pos + xsum head)
                               (match head with [] => lm | _ => false end).
Proof.
  induction head as [|x head IH]; intros b pos sxs0 lm H rest.
  - cbn [map app head_sidxs]. rewrite app_nil_r. change (xsum []) with 0. rewrite N.add_0_r. reflexivity.
  - cbn [forallb] in H. apply andb_true_iff in H. destruct H as [Hx Hh]. unfold is_sidx_box in Hx.
    cbn [map app seg_decode_loop add_box]. destruct (x_kind x) eqn:Ex; try discriminate.
    cbn [fs_segs fs_fragmented fs_sidxs fs_mdat rbind tb_size is_moof].
    rewrite IH by exact Hh. cbn [head_sidxs]. rewrite <- app_assoc. cbn [app]. rewrite xsum_cons.
    destruct head; f_equal; lia.
Qed.

(* DecodeFile on sidx* fragments: the File's fragments are the encoded ones, each at its position *)
Lemma decode_stream_sidx head its b pos0 :
  forallb is_sidx_box head = true -> forallb item_kinds its = true ->
  sidx_guard (head_sidxs pos0 head) its (pos0 + xsum head) 0 false = true ->
  exists st, seg_decode b pos0 (seg_stream head its) = Ok st /\
             file_frags st = items_dfrs (pos0 + xsum head) its.
Proof.
  intros Hh Hk Hg. unfold seg_decode, seg_stream. rewrite (sidx_decode_head head b pos0 [] false Hh). cbn [app].
  destruct (sidx_decode_items (head_sidxs pos0 head) its [] false (mkFstate b (head_sidxs pos0 head) [] None)
              (pos0 + xsum head) (match head with [] => false | _ => false end) 0
              (SI_init _ _ b eq_refl) (Forall_nil _) eq_refl Hk Hg) as (st & E & Hst).
  exists st. split; [exact E|]. apply (sinv_file_frags _ _ _ Hst).
Qed.

(* the segment theorem for any mix of fragment classes, head = sidx boxes without styp *)
Lemma segment_any_sidx head its exps b pos0 tx :
  forallb is_sidx_box head = true ->
  sidx_guard (head_sidxs pos0 head) its (pos0 + xsum head) 0 false = true ->
  Forall2 (item_reads tx) its exps ->
  pos0 + stream_size (seg_stream head its) < POSB ->
  forallb item_framed its = true /\
  exists st, seg_decode b pos0 (seg_stream head its) = Ok st /\
             length (file_frags st) = length its /\ seg_read st tx = Ok (concat exps).
Proof.
  intros Hh Hg H Hb. destruct (reads_split tx its exps H) as (K1 & K2 & K3 & K4). split; [exact K2|].
  destruct (decode_stream_sidx head its b pos0 Hh K1 Hg) as (st & E & Ef).
  exists st. split; [exact E|]. split; [rewrite Ef; apply items_dfrs_length|].
  unfold seg_read. rewrite Ef. apply read_frags_views; try assumption.
  unfold seg_stream in Hb. rewrite stream_size_app, stream_size_TX in Hb. lia.
Qed.

Lemma segment_roundtrip_any_sidx head opt b pos0 tx its exps :
  forallb is_sidx_box head = true ->
  sidx_guard (head_sidxs pos0 head) its (pos0 + xsum head) 0 false = true ->
  Forall2 (frag_case opt tx) its exps ->
  pos0 + stream_size (seg_stream head its) < POSB ->
  forallb item_framed its = true /\
  exists st, seg_decode b pos0 (seg_stream head its) = Ok st /\
             length (file_frags st) = length its /\ seg_read st tx = Ok (concat exps).
Proof.
  intros Hh Hg H Hb. apply segment_any_sidx; try assumption.
  clear Hb Hg. induction H as [|it e its exps H1 _ IH]; constructor; [apply (frag_case_reads opt tx); exact H1|exact IH].
Qed.

(* ------------------------------------------------------------------ without the guard *)
(* one fragment with an emsg in front of its moof; the sidx in front of it has two references: the first starts at the
   emsg, the second (60 bytes later) at the moof.  DecodeFile starts a segment at the emsg (fragment opened) and another
   one at the moof: the first segment keeps a fragment without moof, on which GetFullSamples panics. *)
Definition wit_fe : frag :=
  match run_ops (with_extras (create_fragment 1) 60 0 0 []) [OFull (mkSample 16842752 10 1 0) 0 [7]] with
  | (_, Some fr) => match encode_frag false fr with Ok fe => fe | _ => fr end
  | _ => create_fragment 1
  end.

