(* C05OptProofs.v — OptimizeTfhdTrun followed by (encode, decode,) AddSampleDefaultValues returns the
   samples that were in the trun, for all field values and all flag words. *)
From V.lib Require Import Base.
From V.c05 Require Import C05Model.

(* resolve after the wire: one function per sample *)
Definition rw (tf : tfhd) (tx : option trex) (t : trun) (first : bool) (s : sample) : sample :=
  resolve_sample t (defaults tf tx) first (wire_sample t first s).

Lemma map_first_map_first {A B C} (f : bool -> A -> B) (g : bool -> B -> C) l :
  map_first g (map_first f l) = map_first (fun b a => g b (f b a)) l.
Proof. destruct l as [|a t]; cbn [map_first]; [reflexivity|]. rewrite map_map. reflexivity. Qed.

Lemma map_first_ext {A B} (f g : bool -> A -> B) l :
  (forall a t, l = a :: t -> f true a = g true a) ->
  (forall a, In a (tl l) -> f false a = g false a) ->
  map_first f l = map_first g l.
Proof.
  destruct l as [|a t]; cbn [map_first tl]; intros H1 H2; [reflexivity|].
  f_equal; [eapply H1; reflexivity|]. apply map_ext_in. exact H2.
Qed.

Lemma map_first_id {A} (f : bool -> A -> A) l :
  (forall a t, l = a :: t -> f true a = a) ->
  (forall a, In a (tl l) -> f false a = a) ->
  map_first f l = l.
Proof.
  destruct l as [|a t]; cbn [map_first tl]; intros H1 H2; [reflexivity|].
  f_equal; [eapply H1; reflexivity|]. rewrite <- (map_id t) at 2. apply map_ext_in. exact H2.
Qed.

Lemma resolve_wire tf tx t :
  resolve tf tx (wire_trun t) = map_first (rw tf tx t) (tr_samples t).
Proof.
  unfold resolve. cbn [wire_trun tr_samples]. rewrite map_first_map_first.
  apply map_first_ext; intros; reflexivity.
Qed.

(* bit bookkeeping *)
Ltac bits :=
  unfold has_doff, has_fsf, has_dur, has_size, has_sflags, has_cto,
    tf_has_ddur, tf_has_dsize, tf_has_dflags, tf_has_bdo, tf_has_sdi, tf_base_is_moof,
    tr_clear, tr_set_fsf, tr_remove_fsf, tr_with_flags, tf_set_ddur, tf_set_dsize, tf_set_dflags,
    B_DOFF, B_FSF, B_DUR, B_SIZE, B_SFLAGS, B_CTO, B_BDO, B_SDI, B_DDUR, B_DSIZE, B_DFLAGS, B_MOOF in *;
  cbn [tr_flags tr_fsf tr_samples tr_doff tr_won tr_version
       tf_flags tf_ddur tf_dsize tf_dflags tf_track tf_bdo tf_sdi] in *;
  repeat rewrite ?N.setbit_eqb, ?N.clearbit_eqb in *;
  cbn [N.eqb Pos.eqb negb orb andb] in *;
  repeat rewrite ?andb_true_r, ?andb_false_r, ?orb_false_r, ?orb_true_r in *;
  cbn [negb orb andb] in *.

Lemma sample_eta s : mkSample (s_flags s) (s_dur s) (s_size s) (s_cto s) = s.
Proof. destruct s; reflexivity. Qed.

(* OptimizeTfhdTrun is four blocks in sequence: a relation between its input and output that is reflexive and
   transitive holds of the whole when it holds of each block *)
Lemma optimize_gen_blocks (R : tfhd -> trun -> tfhd * trun -> Prop) b :
  (forall tf tr, R tf tr (tf, tr)) ->
  (forall tf tr p q, R tf tr p -> R (fst p) (snd p) q -> R tf tr q) ->
  (forall tf tr, R tf tr (opt_dur tf tr)) -> (forall tf tr, R tf tr (opt_size tf tr)) ->
  (forall tf tr, R tf tr (opt_flags_gen b tf tr)) -> (forall tf tr, R tf tr (opt_cto tf tr)) ->
  forall tf tr tf' tr', optimize_gen b tf tr = Ok (tf', tr') -> R tf tr (tf', tr').
Proof.
  intros Hr Ht H1 H2 H3 H4 tf tr tf' tr'. unfold optimize_gen.
  destruct (tr_samples tr) as [|s0 [|s1 l]]; [discriminate|intros [= <- <-]; apply Hr|].
  pose proof (H1 tf tr) as K1. destruct (opt_dur tf tr) as [tf1 tr1].
  pose proof (H2 tf1 tr1) as K2. destruct (opt_size tf1 tr1) as [tf2 tr2].
  pose proof (H3 tf2 tr2) as K3. destruct (opt_flags_gen b tf2 tr2) as [tf3 tr3].
  pose proof (H4 tf3 tr3) as K4. intros [= H]. rewrite H in K4.
  exact (Ht _ _ _ _ (Ht _ _ _ _ (Ht _ _ _ _ K1 K2) K3) K4).
Qed.

(* each block keeps the sample list and the resolved-after-wire view *)
Definition keeps (tf : tfhd) (tr : trun) (p : tfhd * trun) : Prop :=
  tr_samples (snd p) = tr_samples tr /\
  forall tx, map_first (rw (fst p) tx (snd p)) (tr_samples tr) = map_first (rw tf tx tr) (tr_samples tr).

Lemma keeps_refl tf tr : keeps tf tr (tf, tr).
Proof. split; reflexivity. Qed.

Lemma keeps_trans tf tr p q :
  keeps tf tr p -> keeps (fst p) (snd p) q -> keeps tf tr q.
Proof.
  intros [S1 R1] [S2 R2]. split; [congruence|].
  intros tx. rewrite <- R1. rewrite <- S1. apply R2.
Qed.

Lemma opt_dur_keeps tf tr : keeps tf tr (opt_dur tf tr).
Proof.
  unfold opt_dur. destruct (tr_samples tr) as [|s0 l] eqn:E; [apply keeps_refl|].
  destruct (has_dur tr) eqn:Hd; cbn [andb]; [|apply keeps_refl].
  destruct (forallb _ _) eqn:Hc; [|apply keeps_refl].
  rewrite forallb_forall in Hc.
  split; [cbn [snd]; bits; reflexivity|].
  intros tx. cbn [fst snd]. rewrite E.
  assert (P : forall b s, In s (s0 :: l) ->
              rw (tf_set_ddur tf (s_dur s0)) tx (tr_clear tr B_DUR) b s = rw tf tx tr b s).
  { intros b s Hs. apply Hc in Hs. apply N.eqb_eq in Hs.
    unfold rw, resolve_sample, wire_sample, defaults. bits. rewrite Hd.
    cbn [s_flags s_dur s_size s_cto]. rewrite Hs. reflexivity. }
  apply map_first_ext.
  - intros a t [= <- <-]. apply P. left; reflexivity.
  - intros a Ha. apply P. right. exact Ha.
Qed.

Lemma opt_size_keeps tf tr : keeps tf tr (opt_size tf tr).
Proof.
  unfold opt_size. destruct (tr_samples tr) as [|s0 l] eqn:E; [apply keeps_refl|].
  destruct (has_size tr) eqn:Hd; cbn [andb]; [|apply keeps_refl].
  destruct (forallb _ _) eqn:Hc; [|apply keeps_refl].
  rewrite forallb_forall in Hc.
  split; [cbn [snd]; bits; reflexivity|].
  intros tx. cbn [fst snd]. rewrite E.
  assert (P : forall b s, In s (s0 :: l) ->
              rw (tf_set_dsize tf (s_size s0)) tx (tr_clear tr B_SIZE) b s = rw tf tx tr b s).
  { intros b s Hs. apply Hc in Hs. apply N.eqb_eq in Hs.
    unfold rw, resolve_sample, wire_sample, defaults. bits. rewrite Hd.
    cbn [s_flags s_dur s_size s_cto]. rewrite Hs. reflexivity. }
  apply map_first_ext.
  - intros a t [= <- <-]. apply P. left; reflexivity.
  - intros a Ha. apply P. right. exact Ha.
Qed.

Lemma opt_cto_keeps tf tr : keeps tf tr (opt_cto tf tr).
Proof.
  unfold opt_cto.
  destruct (has_cto tr) eqn:Hd; cbn [andb]; [|apply keeps_refl].
  destruct (forallb _ _) eqn:Hc; cbn [andb]; [|apply keeps_refl].
  destruct (_ || _); [|apply keeps_refl].
  rewrite forallb_forall in Hc.
  split; [cbn [snd]; bits; reflexivity|].
  intros tx. cbn [fst snd].
  assert (P : forall b s, In s (tr_samples tr) -> rw tf tx (tr_clear tr B_CTO) b s = rw tf tx tr b s).
  { intros b s Hs. apply Hc in Hs. apply Z.eqb_eq in Hs.
    unfold rw, resolve_sample, wire_sample, defaults. bits. rewrite Hd.
    cbn [s_flags s_dur s_size s_cto]. rewrite Hs. reflexivity. }
  apply map_first_ext.
  - intros a t Ht. apply P. rewrite Ht. left; reflexivity.
  - intros a Ha. apply P. destruct (tr_samples tr); [destruct Ha|right; exact Ha].
Qed.

(* the flags block of the repaired text *)
Lemma opt_flags_keeps tf tr : keeps tf tr (opt_flags_gen true tf tr).
Proof.
  unfold opt_flags_gen. destruct (tr_samples tr) as [|s0 [|s1 l]] eqn:E; try apply keeps_refl.
  destruct (has_sflags tr) eqn:Hd; cbn [andb]; [|apply keeps_refl].
  destruct (forallb _ _) eqn:Hc; [|apply keeps_refl].
  rewrite forallb_forall in Hc. cbn [tl] in Hc.
  destruct (s_flags s0 =? s_flags s1) eqn:H01; cbn [negb].
  - apply N.eqb_eq in H01.
    split; [cbn [snd]; bits; reflexivity|].
    intros tx. cbn [fst snd]. rewrite E. apply map_first_ext.
    + intros a t [= <- <-].
      unfold rw, resolve_sample, wire_sample, defaults. bits. rewrite Hd.
      cbn [s_flags s_dur s_size s_cto]. rewrite H01. reflexivity.
    + intros a Ha. cbn [tl] in Ha. apply Hc in Ha. apply N.eqb_eq in Ha.
      unfold rw, resolve_sample, wire_sample, defaults. bits. rewrite Hd.
      cbn [s_flags s_dur s_size s_cto]. rewrite Ha. reflexivity.
  - split; [cbn [snd]; bits; reflexivity|].
    intros tx. cbn [fst snd]. rewrite E. apply map_first_ext.
    + intros a t [= <- <-].
      unfold rw, resolve_sample, wire_sample, defaults. bits. rewrite Hd.
      cbn [s_flags s_dur s_size s_cto]. reflexivity.
    + intros a Ha. cbn [tl] in Ha. apply Hc in Ha. apply N.eqb_eq in Ha.
      unfold rw, resolve_sample, wire_sample, defaults. bits. rewrite Hd.
      cbn [s_flags s_dur s_size s_cto]. rewrite Ha. reflexivity.
Qed.

Lemma optimize_keeps tf tr tf' tr' :
  optimize_gen true tf tr = Ok (tf', tr') -> keeps tf tr (tf', tr').
Proof.
  apply (optimize_gen_blocks keeps); [exact keeps_refl|exact keeps_trans|exact opt_dur_keeps|exact opt_size_keeps|
                                     exact opt_flags_keeps|exact opt_cto_keeps].
Qed.

Lemma optimize_total tf tr : tr_samples tr <> [] -> exists p, optimize_gen true tf tr = Ok p.
Proof.
  unfold optimize_gen. destruct (tr_samples tr) as [|s0 [|s1 l]]; [congruence| |]; intros _.
  - eexists; reflexivity.
  - destruct (opt_dur tf tr) as [tf1 tr1]. destruct (opt_size tf1 tr1) as [tf2 tr2].
    destruct (opt_flags_gen true tf2 tr2) as [tf3 tr3]. eexists; reflexivity.
Qed.

(* general form: optimisation does not change what the decode side resolves, whatever the flag word *)
Lemma optimize_preserves_resolve tf tr tx tf' tr' :
  optimize_gen true tf tr = Ok (tf', tr') ->
  resolve tf' tx (wire_trun tr') = resolve tf tx (wire_trun tr).
Proof.
  intros H. apply optimize_keeps in H. destruct H as [S R]. cbn [fst snd] in *.
  rewrite !resolve_wire. rewrite S. apply R.
Qed.

(* all four per-sample fields present in the trun (as in every trun made by CreateTrun: 0xf01) *)
Definition all_present (t : trun) : bool := has_dur t && has_size t && has_sflags t && has_cto t.

Lemma resolve_all_present tf tx tr :
  all_present tr = true -> resolve tf tx (wire_trun tr) = tr_samples tr.
Proof.
  unfold all_present. intros H. rewrite !andb_true_iff in H. destruct H as [[[H1 H2] H3] H4].
  rewrite resolve_wire. apply map_first_id; intros;
    unfold rw, resolve_sample, wire_sample; destruct (defaults tf tx) as [[dd ds] df];
    rewrite H1, H2, H3, H4; cbn [s_flags s_dur s_size s_cto]; apply sample_eta.
Qed.

Lemma optimize_resolve tf tr tx :
  (1 <= length (tr_samples tr))%nat -> all_present tr = true ->
  exists tf' tr', optimize tf tr = Ok (tf', tr') /\
                  resolve tf' tx (wire_trun tr') = tr_samples tr.
Proof.
  intros Hl Hp. destruct (optimize_total tf tr) as [[tf' tr'] H].
  { destruct (tr_samples tr); [cbn in Hl; lia|discriminate]. }
  exists tf', tr'. split; [exact H|].
  rewrite (optimize_preserves_resolve _ _ _ _ _ H). apply resolve_all_present. exact Hp.
Qed.

(* the in-memory variant (no encode/decode in between): resolve on the optimised trun itself *)
Lemma resolve_in_memory tf tx tr :
  (forall s, In s (tr_samples tr) -> wire_sample tr false s = s) ->
  (match tr_samples tr with s0 :: _ => wire_sample tr true s0 = s0 | [] => True end) ->
  resolve tf tx tr = resolve tf tx (wire_trun tr).
Proof.
  intros H1 H2. rewrite resolve_wire. unfold resolve. apply map_first_ext.
  - intros a t E. rewrite E in H2. unfold rw. rewrite H2. reflexivity.
  - intros a Ha. unfold rw. rewrite H1; [reflexivity|].
    destruct (tr_samples tr); [destruct Ha|right; exact Ha].
Qed.

(* the pinned text (before fix 8cfc4f9) violates the statement: a trun whose first-sample-flags field is
   present but unused (sample flags present) — e.g. after trun.SetFirstSampleFlags — keeps the stale value,
   which takes effect once optimisation drops the per-sample flags *)
Definition wit_tr : trun :=
  mkTrun 1 3845 0 33554432
         [mkSample 16842752 10 2 0; mkSample 16842752 10 2 0; mkSample 16842752 10 2 0] 0.

(* ------------------------------------------------------------------ what optimisation leaves alone *)
Definition frame (tf : tfhd) (tr : trun) (p : tfhd * trun) : Prop :=
  tr_won (snd p) = tr_won tr /\ has_doff (snd p) = has_doff tr /\ tr_samples (snd p) = tr_samples tr /\
  tf_has_bdo (fst p) = tf_has_bdo tf /\ tf_track (fst p) = tf_track tf.

Lemma frame_refl tf tr : frame tf tr (tf, tr).
Proof. repeat split. Qed.

Lemma frame_trans tf tr p q : frame tf tr p -> frame (fst p) (snd p) q -> frame tf tr q.
Proof. intros (A1 & A2 & A3 & A4 & A5) (B1 & B2 & B3 & B4 & B5). repeat split; congruence. Qed.

Lemma opt_dur_frame tf tr : frame tf tr (opt_dur tf tr).
Proof.
  unfold opt_dur. destruct (tr_samples tr); [apply frame_refl|].
  destruct (has_dur tr && _); [|apply frame_refl]. unfold frame. cbn [fst snd]. bits. repeat split.
Qed.

Lemma opt_size_frame tf tr : frame tf tr (opt_size tf tr).
Proof.
  unfold opt_size. destruct (tr_samples tr); [apply frame_refl|].
  destruct (has_size tr && _); [|apply frame_refl]. unfold frame. cbn [fst snd]. bits. repeat split.
Qed.

Lemma opt_flags_frame b tf tr : frame tf tr (opt_flags_gen b tf tr).
Proof.
  unfold opt_flags_gen. destruct (tr_samples tr) as [|s0 [|s1 l]]; try apply frame_refl.
  destruct (has_sflags tr && _); [|apply frame_refl].
  destruct (negb (s_flags s0 =? s_flags s1)); [|destruct b]; unfold frame; cbn [fst snd]; bits; repeat split.
Qed.

Lemma opt_cto_frame tf tr : frame tf tr (opt_cto tf tr).
Proof.
  unfold opt_cto. destruct (_ && _ && _); [|apply frame_refl]. unfold frame. cbn [fst snd]. bits. repeat split.
Qed.

Lemma optimize_frame b tf tr tf' tr' : optimize_gen b tf tr = Ok (tf', tr') -> frame tf tr (tf', tr').
Proof.
  apply (optimize_gen_blocks frame); [exact frame_refl|exact frame_trans|exact opt_dur_frame|exact opt_size_frame|
                                     exact (opt_flags_frame b)|exact opt_cto_frame].
Qed.

(* ------------------------------------------------------------------ the decoder's guard (fix 6c7a902, C05-F7) *)
(* DecodeTrun / DecodeTrunSR accept the count: at most MAX_BARE samples, or some per-sample field present *)
Definition bare_ok (t : trun) : bool :=
  (N.of_nat (length (tr_samples t)) <=? MAX_BARE) || other_field t || has_cto t.

Lemma opt_dur_cto tf tr : has_cto (snd (opt_dur tf tr)) = has_cto tr.
Proof.
  unfold opt_dur. destruct (tr_samples tr); [reflexivity|]. destruct (has_dur tr && _); [|reflexivity]. cbn [snd]. bits. reflexivity.
Qed.

Lemma opt_size_cto tf tr : has_cto (snd (opt_size tf tr)) = has_cto tr.
Proof.
  unfold opt_size. destruct (tr_samples tr); [reflexivity|]. destruct (has_size tr && _); [|reflexivity]. cbn [snd]. bits. reflexivity.
Qed.

Lemma opt_flags_cto b tf tr : has_cto (snd (opt_flags_gen b tf tr)) = has_cto tr.
Proof.
  unfold opt_flags_gen. destruct (tr_samples tr) as [|s0 [|s1 l]]; try reflexivity.
  destruct (has_sflags tr && _); [|reflexivity].
  destruct (negb (s_flags s0 =? s_flags s1)); [|destruct b]; cbn [snd]; bits; reflexivity.
Qed.

(* the repaired fourth block never leaves a trun that had the composition-offset field bare *)
Lemma opt_cto_bare tf tr : has_cto tr = true -> bare_ok (snd (opt_cto tf tr)) = true.
Proof.
  intros Hc. unfold opt_cto. rewrite Hc. cbn [andb].
  destruct (forallb _ _); cbn [andb snd]; [|unfold bare_ok; rewrite Hc; apply orb_true_r].
  destruct (_ || _) eqn:E; cbn [snd]; [|unfold bare_ok; rewrite Hc; apply orb_true_r].
  unfold bare_ok. replace (other_field (tr_clear tr B_CTO)) with (other_field tr) by (unfold other_field; bits; reflexivity).
  change (tr_samples (tr_clear tr B_CTO)) with (tr_samples tr). rewrite E. reflexivity.
Qed.

(* OptimizeTfhdTrun on a trun that has the composition-offset field (every trun made by CreateTrun) *)
Lemma optimize_bare tf tr tf' tr' :
  has_cto tr = true -> bare_ok tr = true -> optimize tf tr = Ok (tf', tr') -> bare_ok tr' = true.
Proof.
  intros Hc Hb. unfold optimize, FIXED_FSF, optimize_gen. destruct (tr_samples tr) as [|s0 [|s1 l]] eqn:E; [discriminate| |].
  - intros [= <- <-]. exact Hb.
  - pose proof (opt_dur_cto tf tr) as C1. destruct (opt_dur tf tr) as [tf1 tr1]. cbn [snd] in C1.
    pose proof (opt_size_cto tf1 tr1) as C2. destruct (opt_size tf1 tr1) as [tf2 tr2]. cbn [snd] in C2.
    pose proof (opt_flags_cto true tf2 tr2) as C3. destruct (opt_flags_gen true tf2 tr2) as [tf3 tr3]. cbn [snd] in C3.
    intros [= H]. pose proof (opt_cto_bare tf3 tr3) as B. rewrite H in B. cbn [snd] in B. apply B. congruence.
Qed.

(* the text before the fix left such a trun bare *)
Lemma optimize_f7_bare_refuted : exists tf tr tf' tr',
  all_present tr = true /\ optimize_f7 tf tr = Ok (tf', tr') /\ bare_ok tr' = false.
Proof.
  exists (create_tfhd 1), (mkTrun 1 3841 0 0 (repeat (mkSample 16842752 10 1 0) 1025) 0),
         (mkTfhd 131128 1 0 1 10 1 16842752), (mkTrun 1 1 0 0 (repeat (mkSample 16842752 10 1 0) 1025) 0).
  repeat apply conj; vm_compute; reflexivity.
Qed.
