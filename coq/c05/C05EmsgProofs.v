(* C05EmsgProofs.v — histories of sample additions interleaved with AddEmsg / AddChild keep Fragment.Children in the
   shape  pre ++ [moof; mdat] ++ post, never panic in AddEmsg (after fix 8f3ca14), and amount to a history of the
   segment model (fhist) whose pre / post boxes are the ones the layout history produced: the round-trip theorems
   apply to them. *)
From V.lib Require Import Base.
From Coq Require Import Permutation.
From V.c05 Require Import C05Model C05FragModel C05GhostProofs C05ReadProofs C05RoundProofs C05SegModel C05SegProofs C05EmsgModel.

(* ------------------------------------------------------------------ lists *)
Lemma insert_at_app_l {A} k (a : A) l1 l2 : (k <= length l1)%nat -> insert_at k a (l1 ++ l2) = insert_at k a l1 ++ l2.
Proof.
  intros H. unfold insert_at. rewrite firstn_app, skipn_app.
  replace (k - length l1)%nat with 0%nat by lia. cbn [firstn skipn]. rewrite app_nil_r, <- app_assoc. reflexivity.
Qed.

Lemma insert_at_map {A B} (f : A -> B) a : forall k l, insert_at k (f a) (map f l) = map f (insert_at k a l).
Proof.
  unfold insert_at. induction k as [|k IH]; intros l; [reflexivity|].
  destruct l as [|x l]; [reflexivity|]. cbn [map firstn skipn app]. f_equal. apply IH.
Qed.

Lemma insert_at_perm {A} k (a : A) l : Permutation (insert_at k a l) (a :: l).
Proof. unfold insert_at. rewrite <- (firstn_skipn k l) at 3. symmetry. apply Permutation_middle. Qed.

Lemma xsum_insert k e l : xsum (insert_at k e l) = x_size e + xsum l.
Proof.
  unfold insert_at. rewrite <- (firstn_skipn k l) at 3. rewrite !xsum_app, xsum_cons. lia.
Qed.

Lemma forallb_insert {A} (p : A -> bool) k a l : p a = true -> forallb p l = true -> forallb p (insert_at k a l) = true.
Proof.
  intros Ha Hl. unfold insert_at. rewrite <- (firstn_skipn k l) in Hl. rewrite forallb_app in *. cbn [forallb].
  apply andb_true_iff in Hl. destruct Hl as [H1 H2]. rewrite H1, Ha, H2. reflexivity.
Qed.

(* ------------------------------------------------------------------ the shape of Fragment.Children *)
Definition shaped (pre post : list xbox) : list child := map KX pre ++ [KMoof; KMdat] ++ map KX post.

Lemma emsg_slot_pre pre rest : forall i idx,
  emsg_slot (map KX pre ++ KMoof :: rest) i idx = emsg_slot (map KX pre) i idx.
Proof. induction pre as [|x pre IH]; intros i idx; cbn [map app emsg_slot is_moof_child]; [reflexivity|apply IH]. Qed.

Lemma emsg_slot_le pre : forall i idx, (idx <= i)%nat -> (emsg_slot (map KX pre) i idx <= i + length pre)%nat.
Proof.
  induction pre as [|x pre IH]; intros i idx H; cbn [map emsg_slot is_moof_child length]; [lia|].
  destruct (is_emsg_child (KX x)); [specialize (IH (S i) (S i))|specialize (IH (S i) idx)]; lia.
Qed.

Lemma add_emsg_shaped pre post e :
  add_emsg (shaped pre post) e = shaped (insert_at (emsg_slot (map KX pre) 0 0) e pre) post.
Proof.
  unfold add_emsg, shaped. cbn [app]. rewrite emsg_slot_pre.
  pose proof (emsg_slot_le pre 0 0 (le_n 0)) as Hle. cbn [Nat.add] in Hle.
  rewrite insert_at_app_l by (rewrite map_length; exact Hle). rewrite insert_at_map. reflexivity.
Qed.

Lemma add_child_shaped pre post x : add_child (shaped pre post) x = shaped pre (post ++ [x]).
Proof. unfold add_child, shaped. rewrite map_app, <- !app_assoc. reflexivity. Qed.

Lemma pre_of_shaped pre post : pre_of (shaped pre post) = pre.
Proof. unfold shaped. induction pre as [|x pre IH]; cbn [map app pre_of]; [reflexivity|]. f_equal. exact IH. Qed.

Lemma post_of_shaped pre post : post_of (shaped pre post) = post.
Proof.
  unfold shaped. induction pre as [|x pre IH]; cbn [map app post_of]; [|exact IH].
  induction post as [|y post IHp]; cbn [map flat_map app]; [reflexivity|]. f_equal. exact IHp.
Qed.

(* ------------------------------------------------------------------ the layout part of a history *)
Definition lay_step (cs : list child) (o : lop) : list child :=
  match o with LSample _ => cs | LEmsg e => add_emsg cs e | LChild x => add_child cs x end.

(* the boxes in front of the moof after the history: every AddEmsg inserts behind the last emsg in front of the moof *)
Fixpoint lay_pre (pre : list xbox) (ops : list lop) : list xbox :=
  match ops with
  | [] => pre
  | LEmsg e :: rest => lay_pre (insert_at (emsg_slot (map KX pre) 0 0) e pre) rest
  | _ :: rest => lay_pre pre rest
  end.

Lemma lay_fold pre post ops :
  fold_left lay_step ops (shaped pre post) = shaped (lay_pre pre ops) (post ++ lops_children ops).
Proof.
  revert pre post. induction ops as [|o ops IH]; intros pre post; cbn [fold_left lay_pre lops_children flat_map].
  - rewrite app_nil_r. reflexivity.
  - destruct o as [s|e|x]; cbn [lay_step app].
    + apply IH.
    + rewrite add_emsg_shaped. apply IH.
    + rewrite add_child_shaped, IH, <- app_assoc. reflexivity.
Qed.

Lemma lay_pre_perm ops : forall pre, Permutation (lay_pre pre ops) (pre ++ lops_emsgs ops).
Proof.
  induction ops as [|o ops IH]; intros pre; cbn [lay_pre lops_emsgs flat_map]; [rewrite app_nil_r; reflexivity|].
  destruct o as [s|e|x]; cbn [app]; try apply IH.
  rewrite IH. rewrite (insert_at_perm _ e pre). cbn [app]. apply Permutation_middle.
Qed.

Lemma lay_pre_xsum ops : forall pre, xsum (lay_pre pre ops) = xsum pre + xsum (lops_emsgs ops).
Proof.
  induction ops as [|o ops IH]; intros pre; cbn [lay_pre lops_emsgs flat_map]; [change (xsum []) with 0; lia|].
  destruct o as [s|e|x]; cbn [app]; try apply IH. fold (lops_emsgs ops). rewrite IH, xsum_insert, xsum_cons. lia.
Qed.

Lemma lay_pre_kinds ops : forall pre,
  forallb inner_kind pre = true -> forallb inner_kind (lops_emsgs ops) = true -> forallb inner_kind (lay_pre pre ops) = true.
Proof.
  induction ops as [|o ops IH]; intros pre Hp He; cbn [lay_pre]; [exact Hp|].
  destruct o as [s|e|x]; cbn [lops_emsgs flat_map app forallb] in He; try (apply IH; assumption).
  apply andb_true_iff in He. destruct He as [He1 He2]. apply IH; [apply forallb_insert; assumption|exact He2].
Qed.

(* ------------------------------------------------------------------ run_lops = layout fold + run_ops on the sample additions *)
Lemma run_lops_split ops : forall st cls st',
  run_lops st ops = (cls, Some st') ->
  l_children st' = fold_left lay_step ops (l_children st) /\
  exists scl, run_ops (l_frag st) (lops_samples ops) = (scl, Some (l_frag st')).
Proof.
  induction ops as [|o ops IH]; intros st cls st' H; cbn [run_lops] in H.
  - injection H as _ <-. split; [reflexivity|]. exists []. reflexivity.
  - cbn [fold_left]. destruct o as [s|e|x]; cbn [lstep] in H.
    + (* a sample addition, accepted or refused: the children stay *)
      change (lops_samples (LSample s :: ops)) with (s :: lops_samples ops). cbn [lay_step run_ops].
      destruct (step (l_frag st) s) as [fr1| | |]; cbn [rbind] in H; try discriminate H.
      all: destruct (run_lops _ ops) as [c r] eqn:E; injection H as _ ->; destruct (IH _ _ _ E) as (A & scl & B).
      all: cbn [l_children l_frag] in A, B; rewrite B; split; [exact A|eexists; reflexivity].
    (* AddEmsg, AddChild: the fragment stays *)
    + destruct (run_lops _ ops) as [c r] eqn:E. injection H as _ ->. exact (IH _ _ _ E).
    + destruct (run_lops _ ops) as [c r] eqn:E. injection H as _ ->. exact (IH _ _ _ E).
Qed.

(* AddEmsg and AddChild never fail: a history ends early only at a sample addition that panics *)
Lemma run_lops_no_sample ops : forall st,
  lops_samples ops = [] -> exists cls st', run_lops st ops = (cls, Some st') /\ Forall (fun c => c = COk) cls.
Proof.
  induction ops as [|o ops IH]; intros st H; cbn [run_lops].
  - eexists; eexists. split; [reflexivity|constructor].
  - destruct o as [s|e|x]; cbn [lops_samples flat_map app] in H; try discriminate; cbn [lstep];
      match goal with |- context [run_lops ?s ops] => destruct (IH s H) as (cls & st' & E & F) end;
      rewrite E; eexists; eexists; (split; [reflexivity|constructor; [reflexivity|exact F]]).
Qed.

(* ------------------------------------------------------------------ the sample additions do not read the sizes around moof and mdat *)
Lemma set_pp_step fr a b o :
  step (set_pp fr a b) o = match step fr o with Ok fr' => Ok (set_pp fr' a b) | Err => Err | Panic => Panic | OutOfFuel => OutOfFuel end.
Proof.
  destruct o as [s d data|t s d data|t s d|s d|ss d|d ss data]; cbn [step].
  (* AddFullSample, AddSample, AddSamples go to the first trun; the two ...ToTrack to a track; AddSampleInterval *)
  1, 4, 5: unfold add_first; cbn [set_pp fr_trafs]; destruct (fr_trafs fr) as [|t ts]; [reflexivity|]; destruct (tf_truns t); reflexivity.
  1, 2: unfold add_sample_to_track; cbn [set_pp fr_trafs fr_next]; destruct (add_to_track_trafs _ _ _ _ _) as [[ts n]|]; reflexivity.
  cbn [set_pp fr_trafs fr_mdat]. destruct (fr_trafs fr) as [|t [|t2 ts]]; try reflexivity.
  destruct (tf_truns t) as [|r [|r2 rs]]; try reflexivity.
  destruct (md_add_part (fr_mdat fr) data); reflexivity.
Qed.

Lemma set_pp_run ops : forall fr a b,
  run_ops (set_pp fr a b) ops = (fst (run_ops fr ops), option_map (fun f => set_pp f a b) (snd (run_ops fr ops))).
Proof.
  induction ops as [|o ops IH]; intros fr a b; cbn [run_ops]; [reflexivity|].
  rewrite set_pp_step. destruct (step fr o) as [fr1| | |]; try reflexivity.
  - rewrite IH. destruct (run_ops fr1 ops) as [c r]. reflexivity.
  - rewrite IH. destruct (run_ops fr ops) as [c r]. reflexivity.
Qed.

Lemma set_pp_with_extras fr a mx b exs a' b' :
  set_pp (with_extras fr a mx b exs) a' b' = with_extras fr a' mx b' exs.
Proof. reflexivity. Qed.

(* ------------------------------------------------------------------ a layout history is a history of the segment model *)
Definition lop_ok (o : lop) : bool :=
  match o with
  | LSample s => is_full_to s
  | LEmsg e => match x_kind e with XEmsg => true | _ => false end
  | LChild x => inner_kind x
  end.

Definition lhist_start (h : lhist) : lstate :=
  l_start (with_extras (create_multi (lh_tracks h)) (xsum (lh_p0 h)) (lh_mx h) (xsum (lh_q0 h)) (lh_exs h)) (lh_p0 h) (lh_q0 h).

(* as hist_ok: pairwise different track ids, AddFullSampleToTrack with Size = len(Data), boxes of the kinds that may
   surround a fragment; every AddEmsg adds an emsg *)
Definition lhist_ok (h : lhist) : Prop :=
  NoDup (lh_tracks h) /\ N.of_nat (length (lops_samples (lh_ops h))) < 4294967296 /\
  forallb lop_ok (lh_ops h) = true /\ Forall (fun o => sized_f (op_full o)) (lops_samples (lh_ops h)) /\
  forallb inner_kind (lh_p0 h) = true /\ forallb inner_kind (lh_q0 h) = true /\ forallb inner_kind (lh_between h) = true.

Lemma lh_final_eq h :
  lh_final h = shaped (lay_pre (lh_p0 h) (lh_ops h)) (lh_q0 h ++ lops_children (lh_ops h)).
Proof. unfold lh_final. rewrite <- lay_fold. reflexivity. Qed.

Lemma lop_ok_parts ops : forallb lop_ok ops = true ->
  forallb is_full_to (lops_samples ops) = true /\ forallb inner_kind (lops_emsgs ops) = true /\
  forallb inner_kind (lops_children ops) = true.
Proof.
  unfold lops_samples, lops_emsgs, lops_children.
  induction ops as [|o ops IH]; cbn [forallb flat_map]; [repeat split|]. rewrite andb_true_iff. intros [Ho Hr].
  destruct (IH Hr) as (A & B & C). destruct o as [s|e|x]; cbn [lop_ok app forallb] in Ho |- *; rewrite ?Ho, ?A, ?B, ?C; repeat split.
  unfold inner_kind. destruct (x_kind e); try discriminate Ho; reflexivity.
Qed.

Lemma lhist_hist_ok h : lhist_ok h -> hist_ok (lhist_fhist h).
Proof.
  intros (Hnd & Hlen & Hok & Hsz & Hp & Hq & Hb). destruct (lop_ok_parts _ Hok) as (A & B & C).
  unfold hist_ok, lhist_fhist. cbn [fh_tracks fh_ops]. repeat split; try assumption.
  unfold hist_kinds. cbn [fh_pre fh_post fh_between]. rewrite lh_final_eq, pre_of_shaped, post_of_shaped.
  rewrite (lay_pre_kinds _ _ Hp B), forallb_app, Hq, C, Hb. reflexivity.
Qed.

(* the fragment the interleaved history builds = the fragment of the segment-model history (sizes in sync) *)
Lemma lhist_frag h cls st' :
  run_lops (lhist_start h) (lh_ops h) = (cls, Some st') ->
  l_children st' = lh_final h /\ hist_frag (lhist_fhist h) = Some (l_sync st').
Proof.
  intros H. destruct (run_lops_split _ _ _ _ H) as (A & scl & B). cbn [lhist_start l_start l_children l_frag] in A, B.
  assert (Ec : l_children st' = lh_final h).
  { rewrite A. unfold lh_final. reflexivity. }
  split; [exact Ec|].
  unfold hist_frag, hist_start, lhist_fhist. cbn [fh_tracks fh_pre fh_mx fh_post fh_exs fh_ops].
  rewrite <- (set_pp_with_extras (create_multi (lh_tracks h)) (xsum (lh_p0 h)) (lh_mx h) (xsum (lh_q0 h)) (lh_exs h)).
  rewrite set_pp_run, B. cbn [snd option_map]. unfold l_sync. rewrite Ec. reflexivity.
Qed.

(* ------------------------------------------------------------------ statements *)
(* (1) any interleaving of sample additions, AddEmsg and AddChild on a fragment whose children are
       p0 ++ [moof; mdat] ++ q0: AddEmsg / AddChild never fail, the children stay in that shape, every emsg added with
       AddEmsg lies in front of the moof (the boxes in front are a permutation of p0 and the added emsgs, total size =
       the sum), the boxes added with AddChild follow the mdat in call order *)
Lemma emsg_layout fr p0 q0 ops cls st' :
  run_lops (l_start fr p0 q0) ops = (cls, Some st') ->
  exists pre, l_children st' = shaped pre (q0 ++ lops_children ops) /\
              Permutation pre (p0 ++ lops_emsgs ops) /\ xsum pre = xsum p0 + xsum (lops_emsgs ops) /\
              pre_of (l_children st') = pre /\ post_of (l_children st') = q0 ++ lops_children ops.
Proof.
  intros H. destruct (run_lops_split _ _ _ _ H) as (A & _). cbn [l_start l_children] in A.
  change (map KX p0 ++ [KMoof; KMdat] ++ map KX q0) with (shaped p0 q0) in A. rewrite lay_fold in A.
  exists (lay_pre p0 ops). rewrite A. split; [reflexivity|]. split; [apply lay_pre_perm|]. split; [apply lay_pre_xsum|].
  split; [apply pre_of_shaped|apply post_of_shaped].
Qed.

(* (2) the segment theorem for fragments built by such interleaved histories *)
Lemma segment_roundtrip_emsg head opt b pos0 tx lhs frs fes :
  head_ok head = true -> Forall lhist_ok lhs ->
  Forall2 (fun h fr => exists cls st', run_lops (lhist_start h) (lh_ops h) = (cls, Some st') /\ fr = l_sync st') lhs frs ->
  encode_frags opt frs = Ok fes ->
  Forall2 frag_guard frs fes ->
  Forall (fun h => consistent (added_fulls (lh_tracks h) (tx_track tx) (lops_samples (lh_ops h)))) lhs ->
  let its := hist_items (map lhist_fhist lhs) fes in
  pos0 + stream_size (seg_stream head its) < POSB ->
  forallb item_framed its = true /\
  exists st, seg_decode b pos0 (seg_stream head its) = Ok st /\
    length (file_frags st) = length lhs /\
    seg_read st (Some tx) = Ok (flat_map (fun h => added_fulls (lh_tracks h) (tx_track tx) (lops_samples (lh_ops h))) lhs).
Proof.
  intros Hh Hok Hfr Henc Hg Hcons its Hb.
  assert (H1 : Forall hist_ok (map lhist_fhist lhs)).
  { rewrite Forall_map. eapply Forall_impl; [|exact Hok]. exact lhist_hist_ok. }
  assert (H2 : Forall2 (fun h fr => hist_frag h = Some fr) (map lhist_fhist lhs) frs).
  { clear -Hfr. induction Hfr as [|h fr lhs frs (cls & st' & E & ->) _ IH]; cbn [map]; constructor; [|exact IH].
    exact (proj2 (lhist_frag h cls st' E)). }
  assert (H3 : Forall (fun h => consistent (added_fulls (fh_tracks h) (tx_track tx) (fh_ops h))) (map lhist_fhist lhs)).
  { rewrite Forall_map. exact Hcons. }
  destruct (segment_roundtrip head opt b pos0 tx _ frs fes Hh H1 H2 Henc Hg H3 Hb) as (F & st & E & L & R).
  split; [exact F|]. exists st. split; [exact E|]. split; [rewrite L; apply map_length|].
  rewrite R. rewrite flat_map_concat_map, map_map, <- flat_map_concat_map. reflexivity.
Qed.

(* (3) the text before fix 8f3ca14 *)
Definition EMSG60 : xbox := mkX XEmsg 60 0 [].

(* CreateFragment; AddChild(emsg) (children moof, mdat, emsg: length 3, capacity 4); AddEmsg; AddEmsg: the first call
   puts the emsg BEHIND the mdat (nothing in front of the moof), the second panics; NewFragment(); AddEmsg panics *)
Lemma add_emsg_pinned_refuted :
  (exists cs1, add_emsg_pinned 4 [KMoof; KMdat; KX EMSG60] EMSG60 = Ok cs1 /\ pre_of cs1 = [] /\
               add_emsg_pinned 4 cs1 EMSG60 = Panic) /\
  add_emsg_pinned 0 [] EMSG60 = Panic /\
  add_emsg [] EMSG60 = [KX EMSG60] /\
  pre_of (add_emsg (add_emsg [KMoof; KMdat; KX EMSG60] EMSG60) EMSG60) = [EMSG60; EMSG60].
Proof. split; [eexists; repeat split; reflexivity|repeat split; reflexivity]. Qed.
