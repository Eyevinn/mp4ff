(* C05CodecProofs.v — DecodeTrun(EncodeTrun t) is the wire view of t, DecodeTfhd(EncodeTfhd h) the wire view of h. *)
From V.lib Require Import Base.
From V.c05 Require Import C05Model C05FragModel C05CodecModel C05OptProofs.

Lemma u32_small' x : x < 4294967296 -> u32 x = x.
Proof. intros H. unfold u32. apply N.mod_small. exact H. Qed.

(* the four bytes of x < 2^32 put together again: one byte is split off at a time; lia sees the quotients as variables *)
Lemma be32_value x : x < 4294967296 ->
  x / 16777216 mod 256 * 16777216 + x / 65536 mod 256 * 65536 + x / 256 mod 256 * 256 + x mod 256 = x.
Proof.
  intros H. rewrite (N.mod_small (x / 16777216)) by (apply N.div_lt_upper_bound; [discriminate|exact H]).
  pose proof (N.div_mod' x 256) as E1. pose proof (N.div_mod' (x / 256) 256) as E2. pose proof (N.div_mod' (x / 65536) 256) as E3.
  rewrite N.div_div in E2, E3 by discriminate. change (256 * 256) with 65536 in E2. change (65536 * 256) with 16777216 in E3.
  revert E1 E2 E3. generalize (x / 16777216) (x / 65536) (x / 65536 mod 256) (x / 256) (x / 256 mod 256) (x mod 256).
  clear. intros. lia.
Qed.

Lemma rd32_be32 x l : x < 4294967296 -> rd32 (be32 x ++ l) = Some (x, l).
Proof. intros H. unfold be32, rd32. cbn [app]. rewrite (be32_value x H). reflexivity. Qed.

Lemma rd64_be64 x l : x < 18446744073709551616 -> rd64 (be64 x ++ l) = Some (x, l).
Proof.
  intros H. unfold be64, rd64. rewrite <- app_assoc.
  rewrite rd32_be32 by (apply N.div_lt_upper_bound; [discriminate|exact H]).
  rewrite rd32_be32 by (apply N.mod_lt; discriminate).
  rewrite (N.mul_comm (x / 4294967296)), <- N.div_mod'. reflexivity.
Qed.

Lemma opt_rd_enc (b : bool) x l :
  x < 4294967296 -> opt_rd b ((if b then be32 x else []) ++ l) = Some ((if b then x else 0), l).
Proof. intros H. destruct b; cbn [opt_rd app]; [apply rd32_be32; exact H|reflexivity]. Qed.

(* `if t.HasBaseDataOffset() { bdo = s.ReadUint64() }` *)
Lemma opt_rd64_enc (b : bool) x l :
  x < 18446744073709551616 ->
  (if b then rd64 ((if b then be64 x else []) ++ l) else Some (0, (if b then be64 x else []) ++ l))
  = Some ((if b then x else 0), l).
Proof. intros H. destruct b; [apply rd64_be64; exact H|reflexivity]. Qed.

Definition i32_ok (z : Z) : bool := ((-2147483648 <=? z) && (z <? 2147483648))%Z.

Lemma i32_bits_lt z : i32_bits z < 4294967296.
Proof. unfold i32_bits. pose proof (Z.mod_pos_bound z 4294967296 ltac:(lia)). lia. Qed.

Lemma bits_i32_bits z : i32_ok z = true -> bits_i32 (i32_bits z) = z.
Proof.
  unfold i32_ok, bits_i32, i32_bits. intros H. apply andb_true_iff in H. destruct H as [H1 H2].
  apply Z.leb_le in H1. apply Z.ltb_lt in H2.
  destruct (Z_lt_le_dec z 0) as [Hn|Hp].
  - replace (z mod 4294967296)%Z with (z + 4294967296)%Z by lia.
    destruct (Z.to_N (z + 4294967296) <? 2147483648) eqn:E; [apply N.ltb_lt in E; lia|]. lia.
  - rewrite Z.mod_small by lia.
    destruct (Z.to_N z <? 2147483648) eqn:E; [lia|apply N.ltb_ge in E; lia].
Qed.

Definition sample_wf (s : sample) : bool :=
  (s_flags s <? 4294967296) && (s_dur s <? 4294967296) && (s_size s <? 4294967296) && i32_ok (s_cto s).

Definition no_fields (t : trun) : bool :=
  negb (has_dur t) && negb (has_size t) && negb (has_sflags t) && negb (has_cto t).

(* the fields fit their wire widths *)
Definition trun_fields_wf (t : trun) : bool :=
  (tr_version t <? 256) && (tr_flags t <? 16777216) && (tr_fsf t <? 4294967296) && i32_ok (tr_doff t)
  && (lenN (tr_samples t) <? 4294967296) && forallb sample_wf (tr_samples t).

(* ... and DecodeTrun's guard on the count accepts it *)
Definition trun_wf (t : trun) : bool :=
  trun_fields_wf t && negb ((1024 <? lenN (tr_samples t)) && no_fields t).

(* the guard in the form the optimiser establishes (C05OptProofs.optimize_bare) *)
Lemma bare_ok_guard t : bare_ok t = true -> negb ((1024 <? lenN (tr_samples t)) && no_fields t) = true.
Proof.
  unfold bare_ok, other_field, no_fields, MAX_BARE, lenN. rewrite N.ltb_antisym. intros H.
  destruct (N.of_nat (length (tr_samples t)) <=? 1024); [reflexivity|]. cbn [orb] in H. cbn [negb andb].
  destruct (has_dur t), (has_size t), (has_sflags t), (has_cto t); try discriminate H; reflexivity.
Qed.

Lemma trun_wf_of_bare t : trun_fields_wf t = true -> bare_ok t = true -> trun_wf t = true.
Proof. intros H1 H2. unfold trun_wf. rewrite H1, (bare_ok_guard t H2). reflexivity. Qed.

(* the samples DecodeTrun builds: wire_sample with `first` only for the head *)
Definition wire_list (t : trun) (first : bool) (ss : list sample) : list sample :=
  match ss with
  | [] => []
  | s :: r => wire_sample t first s :: map (wire_sample t false) r
  end.

Lemma wire_list_false t ss : wire_list t false ss = map (wire_sample t false) ss.
Proof. destruct ss; reflexivity. Qed.

Lemma dec_samples_enc t fsf' : (has_fsf t = true -> fsf' = tr_fsf t) -> forall ss first rest,
  forallb sample_wf ss = true ->
  dec_samples (tr_flags t) fsf' (length ss) first (flat_map (enc_sample t) ss ++ rest)
  = Some (wire_list t first ss, rest).
Proof.
  intros Hfsf. induction ss as [|s ss IH]; intros first rest Hwf; [reflexivity|].
  cbn [forallb] in Hwf. apply andb_true_iff in Hwf. destruct Hwf as [Hs Hss].
  unfold sample_wf in Hs. rewrite !andb_true_iff in Hs. destruct Hs as [[[Hf Hd] Hz] Hc].
  apply N.ltb_lt in Hf. apply N.ltb_lt in Hd. apply N.ltb_lt in Hz.
  cbn [length dec_samples flat_map]. unfold enc_sample. rewrite <- !app_assoc.
  fold (has_dur t). fold (has_size t). fold (has_sflags t). fold (has_cto t). fold (has_fsf t).
  rewrite opt_rd_enc by exact Hd. rewrite opt_rd_enc by exact Hz. rewrite opt_rd_enc by exact Hf.
  rewrite opt_rd_enc by apply i32_bits_lt.
  rewrite IH by exact Hss. rewrite wire_list_false. cbn [wire_list]. f_equal. f_equal. f_equal.
  unfold wire_sample. f_equal.
  - destruct (has_sflags t); [reflexivity|]. destruct (has_fsf t); [rewrite Hfsf; reflexivity|reflexivity].
  - destruct (has_cto t); [apply bits_i32_bits; exact Hc|reflexivity].
Qed.

Lemma map_first_wire_list t ss : map_first (wire_sample t) ss = wire_list t true ss.
Proof. destruct ss; reflexivity. Qed.

Lemma expected_size_trun t :
  expected_size (tr_flags t) (u32 (lenN (tr_samples t))) = trun_size t.
Proof. reflexivity. Qed.

Lemma dec_enc_trun t :
  trun_wf t = true -> dec_trun (trun_size t) (enc_trun_body t) = Ok (wire_trun t).
Proof.
  unfold trun_wf, trun_fields_wf. rewrite !andb_true_iff. intros [[[[[[Hv Hf] Hx] Hd] Hl] Hs] Hk].
  apply N.ltb_lt in Hv. apply N.ltb_lt in Hf. apply N.ltb_lt in Hx. apply N.ltb_lt in Hl.
  unfold dec_trun, enc_trun_body.
  assert (Hvf : u32 (tr_version t * 16777216 + tr_flags t) = tr_version t * 16777216 + tr_flags t)
    by (unfold u32; apply N.mod_small; lia).
  rewrite Hvf. rewrite rd32_be32 by lia. rewrite u32_small' by exact Hl. rewrite rd32_be32 by exact Hl.
  assert (Hver : (tr_version t * 16777216 + tr_flags t) / 16777216 = tr_version t) by lia.
  assert (Hfl : (tr_version t * 16777216 + tr_flags t) mod 16777216 = tr_flags t) by lia.
  rewrite Hver, Hfl.
  rewrite <- (u32_small' (lenN (tr_samples t))) at 1 by exact Hl. rewrite expected_size_trun, N.eqb_refl. cbn [negb].
  fold (has_dur t). fold (has_size t). fold (has_sflags t). fold (has_cto t). fold (has_doff t). fold (has_fsf t).
  assert (Hchk : (1024 <? lenN (tr_samples t)) && negb (has_dur t) && negb (has_size t) && negb (has_sflags t) && negb (has_cto t) = false).
  { apply negb_true_iff in Hk. unfold no_fields in Hk. rewrite <- Hk. rewrite !andb_assoc. reflexivity. }
  rewrite Hchk.
  rewrite opt_rd_enc by apply i32_bits_lt. rewrite opt_rd_enc by exact Hx.
  unfold lenN. rewrite Nat2N.id. rewrite <- (app_nil_r (flat_map _ _)).
  rewrite (dec_samples_enc t) by (try exact Hs; intros Hh; rewrite Hh; reflexivity).
  unfold wire_trun. rewrite map_first_wire_list. f_equal. f_equal.
  destruct (has_doff t); [apply bits_i32_bits; exact Hd|reflexivity].
Qed.

Definition tfhd_wf (h : tfhd) : bool :=
  (tf_flags h <? 16777216) && (tf_track h <? 4294967296) && (tf_bdo h <? 18446744073709551616)
  && (tf_sdi h <? 4294967296) && (tf_ddur h <? 4294967296) && (tf_dsize h <? 4294967296)
  && (tf_dflags h <? 4294967296).

Lemma dec_enc_tfhd h : tfhd_wf h = true -> dec_tfhd (enc_tfhd_body h) = Ok (wire_tfhd h).
Proof.
  unfold tfhd_wf. rewrite !andb_true_iff. intros [[[[[[Hf Ht] Hb] Hs] Hd] Hz] Hg].
  apply N.ltb_lt in Hf. apply N.ltb_lt in Ht. apply N.ltb_lt in Hb. apply N.ltb_lt in Hs.
  apply N.ltb_lt in Hd. apply N.ltb_lt in Hz. apply N.ltb_lt in Hg.
  unfold dec_tfhd, enc_tfhd_body. rewrite u32_small' by lia. rewrite rd32_be32 by lia.
  rewrite N.mod_small by exact Hf. rewrite rd32_be32 by exact Ht.
  fold (tf_has_bdo h). fold (tf_has_sdi h). fold (tf_has_ddur h). fold (tf_has_dsize h). fold (tf_has_dflags h).
  rewrite opt_rd64_enc by exact Hb.
  rewrite opt_rd_enc by exact Hs. rewrite opt_rd_enc by exact Hd. rewrite opt_rd_enc by exact Hz.
  rewrite <- (app_nil_r (if tf_has_dflags h then be32 (tf_dflags h) else [])).
  rewrite opt_rd_enc by exact Hg. reflexivity.
Qed.
